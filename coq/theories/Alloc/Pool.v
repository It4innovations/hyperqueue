(** Sequences of elementary steps over the groups of a pool, their effect on the invariant and on
    the concise mirror. *)
From Coq Require Import Permutation.
From HQ Require Import Base.Prelude Gen.Consts Alloc.Model Alloc.Spec Alloc.Lemmas Alloc.Group.
Require Import ZifyBool.
Open Scope N_scope.

(** ResourcePool::claim_resources_with_group_mask only works on a group pool and a policy with an amount:
    compact / compact! run the scatter loop over the selected groups, tight / tight! the compact loop *)
Lemma claim_with_group_mask_inv p rid rq mask wit p' ra :
  claim_with_group_mask p rid rq mask wit = Ok (p', ra) ->
  exists full gs pol a gs' out,
    p = PGroups full gs /\ rq = Req pol a /\ p' = PGroups full gs' /\ ra = mkRalloc rid a out
    /\ match pol with
       | Compact | ForceCompact => claim_scatter_from_groups a gs (Some mask) wit = Ok (gs', out)
       | Tight | ForceTight => claim_compact_from_groups a gs (Some mask) wit = Ok (gs', out)
       | Scatter => False
       end.
Proof.
  destruct p as [| |full gs|]; cbn [claim_with_group_mask]; try discriminate.
  destruct rq as [pol a|]; [|discriminate]. intros H. exists full, gs, pol, a.
  destruct pol; try discriminate H.
  1,3: destruct (claim_scatter_from_groups a gs (Some mask) wit) as [[gs' out]| |]; cbn [bind] in H; try discriminate H;
       inversion H; subst; exists gs', out; auto.
  all: destruct (claim_compact_from_groups a gs (Some mask) wit) as [[gs' out]| |]; cbn [bind] in H; try discriminate H;
       inversion H; subst; exists gs', out; auto.
Qed.

Lemma take_all_app gs a b : take_all gs (a ++ b) = match take_all gs a with Some gs1 => take_all gs1 b | None => None end.
Proof.
  revert gs; induction a as [|ix a IH]; intros gs; simpl; auto.
  destruct (get_at gs (ai_group ix)); auto. destruct (take1 a0 ix); auto.
Qed.

Lemma take_all_length gs out gs' : take_all gs out = Some gs' -> length gs' = length gs.
Proof.
  revert gs; induction out as [|ix out IH]; intros gs; simpl.
  - intros H; inversion H; auto.
  - destruct (get_at gs (ai_group ix)); try discriminate. destruct (take1 a ix); try discriminate.
    intros H. apply IH in H. rewrite H. apply set_at_length.
Qed.

(** what a list of AllocationIndex holds of index i of group g *)
Definition hsum (out : list aidx) (g i : N) : N :=
  sumN (map (fun ix => if (ai_group ix =? g) && (ai_index ix =? i) then held_ix ix else 0) out).
Definition hfany (out : list aidx) (g i : N) : bool :=
  existsb (fun ix => (ai_group ix =? g) && (ai_index ix =? i) && negb (ai_frac ix =? 0)) out.

Lemma hsum_nil g i : hsum [] g i = 0.
Proof. reflexivity. Qed.
Lemma hsum_cons ix out g i :
  hsum (ix :: out) g i = (if (ai_group ix =? g) && (ai_index ix =? i) then held_ix ix else 0) + hsum out g i.
Proof. unfold hsum. cbn [map]. rewrite sumN_cons. auto. Qed.
Lemma hsum_app a b g i : hsum (a ++ b) g i = hsum a g i + hsum b g i.
Proof. unfold hsum. rewrite map_app, sumN_app. auto. Qed.
Lemma hsum_perm a b g i : Permutation a b -> hsum a g i = hsum b g i.
Proof. intros H. unfold hsum. apply sumN_map_perm; auto. Qed.
Lemma hfany_cons ix out g i :
  hfany (ix :: out) g i = ((ai_group ix =? g) && (ai_index ix =? i) && negb (ai_frac ix =? 0)) || hfany out g i.
Proof. reflexivity. Qed.
Lemma hfany_app a b g i : hfany (a ++ b) g i = hfany a g i || hfany b g i.
Proof. unfold hfany. apply existsb_app. Qed.
Lemma hfany_perm a b g i : Permutation a b -> hfany a g i = hfany b g i.
Proof. apply existsb_perm. Qed.

(** one more AllocationIndex in the list = [add_h] / [add_hf] on its group *)
Lemma hsum_cons_add ix l g i : hsum (ix :: l) g i = (if g =? ai_group ix then add_h (hsum l g) ix i else hsum l g i).
Proof.
  rewrite hsum_cons. unfold add_h. destruct (N.eqb_spec g (ai_group ix)) as [->|Hne].
  - rewrite N.eqb_refl. simpl. destruct (N.eqb_spec i (ai_index ix)); destruct (N.eqb_spec (ai_index ix) i); try congruence; lia.
  - destruct (N.eqb_spec (ai_group ix) g); [congruence|]. simpl. lia.
Qed.

Lemma hfany_cons_add ix l g i : hfany (ix :: l) g i = (if g =? ai_group ix then add_hf (hfany l g) ix i else hfany l g i).
Proof.
  rewrite hfany_cons. unfold add_hf. destruct (N.eqb_spec g (ai_group ix)) as [->|Hne].
  - rewrite N.eqb_refl. simpl. destruct (N.eqb_spec i (ai_index ix)); destruct (N.eqb_spec (ai_index ix) i); try congruence; simpl;
      destruct (hfany l (ai_group ix) i); destruct (ai_frac ix =? 0); reflexivity.
  - destruct (N.eqb_spec (ai_group ix) g); [congruence|]. reflexivity.
Qed.

Lemma GI_ext u g h hf h' hf' :
  (forall i, h i = h' i) -> (forall i, hf i = hf' i) -> GI u g h hf -> GI u g h' hf'.
Proof.
  intros E1 E2 (Hwf & Hc & Hout & Hhf). split; [auto|]. split; [|split].
  - intros i Hi. rewrite <- E1. auto.
  - intros i Hi. destruct (Hout i Hi) as (A & B & C). rewrite <- E1. auto.
  - intros i. rewrite <- E2. apply Hhf.
Qed.

Lemma compat_ext h hf h' hf' :
  (forall i, h i = h' i) -> (forall i, hf i = hf' i) -> compat h hf -> compat h' hf'.
Proof. intros E1 E2 Hc i. rewrite <- E1, <- E2. apply Hc. Qed.

(** invariant of the groups of one pool: [us] = the indices each group owns,
    [h g i] / [hf g i] = the holdings of live allocations *)
Definition GsI (us : list (list N)) (gs : list group) (h : N -> N -> N) (hf : N -> N -> bool) : Prop :=
  length gs = length us
  /\ forall gi u g, nth_error us (nat_of gi) = Some u -> nth_error gs (nat_of gi) = Some g -> gi < len gs ->
                    GI u g (h gi) (hf gi).

Lemma GsI_ext us gs h hf h' hf' :
  (forall g i, h g i = h' g i) -> (forall g i, hf g i = hf' g i) -> GsI us gs h hf -> GsI us gs h' hf'.
Proof.
  intros E1 E2 [Hl H]. split; auto. intros gi u g Hu Hg Hlt.
  eapply GI_ext; [apply E1 | apply E2 | eauto].
Qed.

Lemma GsI_set_at us gs h hf gi g' h1 hf1 :
  GsI us gs h hf -> gi < len gs ->
  (forall u, nth_error us (nat_of gi) = Some u -> GI u g' h1 hf1) ->
  GsI us (set_at gs gi g') (fun g => if g =? gi then h1 else h g) (fun g => if g =? gi then hf1 else hf g).
Proof.
  intros [Hl H] Hlt Hg. split; [rewrite set_at_length; auto|].
  intros gj u g Hu Hnth Hltj. rewrite len_set_at in Hltj.
  rewrite nth_error_set_at in Hnth.
  destruct (N.ltb_spec gi (len gs)); [|lia]. simpl in Hnth.
  destruct (Nat.eqb_spec (nat_of gi) (nat_of gj)) as [E|E].
  - apply nat_of_inj in E. subst gj. inversion Hnth; subst g. rewrite N.eqb_refl. auto.
  - destruct (N.eqb_spec gj gi); [subst; congruence|]. eauto.
Qed.

Lemma take_all_GsI us out : forall gs h hf gs',
  GsI us gs h hf -> take_all gs out = Some gs' ->
  GsI us gs' (fun g i => h g i + hsum out g i) (fun g i => hf g i || hfany out g i)
  /\ Forall (fun ix => ai_group ix < len gs) out.
Proof.
  induction out as [|ix out IH]; intros gs h hf gs' HI Ht; simpl in Ht.
  - inversion Ht; subst. split; [|constructor].
    eapply GsI_ext; [| |eauto]; intros; simpl; rewrite ?hsum_nil, ?orb_false_r; auto; lia.
  - destruct (get_at gs (ai_group ix)) as [g| |] eqn:Eg; try discriminate.
    destruct (take1 g ix) as [g'|] eqn:Et; try discriminate.
    apply get_at_ok in Eg. destruct Eg as [Hlt Hnth].
    assert (HI' : GsI us (set_at gs (ai_group ix) g')
                    (fun g0 => if g0 =? ai_group ix then add_h (h (ai_group ix)) ix else h g0)
                    (fun g0 => if g0 =? ai_group ix then add_hf (hf (ai_group ix)) ix else hf g0)).
    { apply GsI_set_at; auto. intros u Hu. eapply take1_GI; eauto. destruct HI as [_ HI]. eapply HI; eauto. }
    destruct (IH _ _ _ _ HI' Ht) as [H1 H2]. split.
    + eapply GsI_ext; [| |exact H1]; intros g0 i; cbv beta.
      * rewrite hsum_cons_add. destruct (N.eqb_spec g0 (ai_group ix)) as [->|]; unfold add_h; lia.
      * rewrite hfany_cons_add. destruct (N.eqb_spec g0 (ai_group ix)) as [->|]; [|reflexivity].
        unfold add_hf. rewrite <- !orb_assoc. f_equal. apply orb_comm.
    + constructor; auto. rewrite len_set_at in H2. auto.
Qed.


Definition gs_mirror (gs : list group) (cs : cstate) : Prop := Forall2 cmirror gs cs.
Definition gs_wf (gs : list group) : Prop := Forall gwf gs.

Lemma Forall2_nth {A B} (R : A -> B -> Prop) l l' n x :
  Forall2 R l l' -> nth_error l n = Some x -> exists y, nth_error l' n = Some y /\ R x y.
Proof.
  intros H; revert n; induction H; intros [|n]; simpl; try discriminate.
  - intros E; inversion E; subst; eauto.
  - auto.
Qed.

Lemma Forall2_set_nth {A B} (R : A -> B -> Prop) l l' n x y :
  Forall2 R l l' -> R x y -> Forall2 R (set_nth l n x) (set_nth l' n y).
Proof. intros H; revert n; induction H; intros [|n] Hr; simpl; constructor; auto. Qed.

Lemma Forall2_len {A B} (R : A -> B -> Prop) l l' : Forall2 R l l' -> len l = len l'.
Proof. intros H. unfold len. f_equal. induction H; simpl; auto. Qed.

Lemma Forall2_set_at {A B} (R : A -> B -> Prop) l l' i x y :
  Forall2 R l l' -> R x y -> Forall2 R (set_at l i x) (set_at l' i y).
Proof.
  intros H Hr. unfold set_at. rewrite <- (Forall2_len _ _ _ H).
  destruct (i <? len l); auto using Forall2_set_nth.
Qed.

Lemma Forall_set_at {A} (P : A -> Prop) l i x : Forall P l -> P x -> Forall P (set_at l i x).
Proof.
  intros H Hx. unfold set_at. destruct (i <? len l); auto.
  generalize (nat_of i). induction H; intros [|n]; simpl; constructor; auto.
Qed.

Lemma Forall_nth {A} (P : A -> Prop) l n x : Forall P l -> nth_error l n = Some x -> P x.
Proof. intros H E. apply nth_error_In in E. rewrite Forall_forall in H. auto. Qed.

Lemma take1_wf g ix g' : gwf g -> take1 g ix = Some g' -> gwf g'.
Proof.
  (* a group is well formed relative to the universe of its own contents *)
  intros Hwf Ht.
  set (u := g_idx g ++ keys (g_fr g)).
  assert (HGI : GI u g (fun i => if memN i u then FPU - group_free g i else 0)
                       (fun i => match fget (g_fr g) i with Some _ => true | None => false end)).
  { destruct Hwf as (Hnd & Hndk & Hsf & Hlt). split; [repeat split; auto|]. split; [|split].
    - intros i Hi. apply memN_in in Hi. rewrite Hi. unfold group_free, fget0. destruct (memN i (g_idx g)); [lia|].
      destruct (fget (g_fr g) i) eqn:E; [apply Hlt in E|]; pose proof FPU_pos; lia.
    - intros i Hi. split; [|split].
      + intros Hc. apply Hi. apply in_or_app; auto.
      + apply fget_none_notin. intros Hc. apply Hi. apply in_or_app; auto.
      + apply memN_false in Hi. rewrite Hi. auto.
    - intros i. destruct (fget (g_fr g) i); split; congruence. }
  eapply take1_GI in HGI; eauto. apply HGI.
Qed.

Lemma remove_fractions_ctake1 s gi ix :
  ai_frac ix <> 0 ->
  remove_fractions s gi (ai_index ix) (ai_frac ix) =
  match get_at s gi with
  | Ok c => match ctake1 c ix with Ok c' => Ok (set_at s gi c') | Panic p => Panic p | Disabled => Disabled end
  | Panic p => Panic p | Disabled => Disabled
  end.
Proof.
  intros Hz. unfold remove_fractions, ctake1. destruct (get_at s gi); simpl; auto.
  destruct (N.eqb_spec (ai_frac ix) 0); [congruence|].
  destruct (fget0 (c_fr a) (ai_index ix) <? ai_frac ix); auto. destruct (c_units a =? 0); auto.
Qed.

Lemma remove_loop_groups_mirror out : forall gs cs gs',
  gs_wf gs -> gs_mirror gs cs -> take_all gs out = Some gs' ->
  exists cs', remove_loop_groups cs out = Ok cs' /\ gs_mirror gs' cs' /\ gs_wf gs'.
Proof.
  induction out as [|ix out IH]; intros gs cs gs' Hwf Hm Ht; simpl in *.
  - inversion Ht; subst. eauto.
  - destruct (get_at gs (ai_group ix)) as [g| |] eqn:Eg; try discriminate.
    destruct (take1 g ix) as [g'|] eqn:Et; try discriminate.
    apply get_at_ok in Eg. destruct Eg as [Hlt Hnth].
    destruct (Forall2_nth _ _ _ _ _ Hm Hnth) as [c [Hc Hmc]].
    assert (Hgwf : gwf g) by (eapply Forall_nth; eauto).
    destruct (ctake1_mirror _ _ _ _ Hgwf Hmc Et) as [c' [Hct Hmc']].
    assert (Hgc : get_at cs (ai_group ix) = Ok c).
    { apply get_at_ok. rewrite <- (Forall2_len _ _ _ Hm). auto. }
    assert (Hwf' : gs_wf (set_at gs (ai_group ix) g')).
    { apply Forall_set_at; auto. eapply take1_wf; eauto. }
    assert (Hm' : gs_mirror (set_at gs (ai_group ix) g') (set_at cs (ai_group ix) c')).
    { apply Forall2_set_at; auto. }
    destruct (IH _ _ _ Hwf' Hm' Ht) as [cs' [H1 H2]].
    exists cs'. split; auto.
    destruct (N.eqb_spec (ai_frac ix) 0) as [Hz|Hz].
    + rewrite Hgc. simpl. unfold ctake1 in Hct. rewrite Hz in Hct. simpl in Hct.
      destruct (c_units c =? 0); [discriminate|]. inversion Hct; subst c'. auto.
    + rewrite remove_fractions_ctake1 by auto. rewrite Hgc, Hct. simpl. auto.
Qed.
