(** C16 - what the monitor solver-suboptimal checks ([answer_optimal]: the objective of the solver's answer equals
    the brute-force optimum) implies, without coupling weights and without the tie-breaking terms, the hypothesis
    of the strict-admission theorems: the answer selects the minimum number of groups for every entry. *)
From Coq Require Import Permutation.
From HQ Require Import Base.Prelude Gen.Consts Alloc.Model Alloc.Spec Alloc.Lemmas Alloc.Group Alloc.Pool Alloc.Inv Alloc.Mirror Alloc.Theorems Alloc.MirrorSystem Alloc.Admission Alloc.AllFree Alloc.Objective Alloc.Examples
  Alloc.PolicyAdmission Alloc.PolicyStrict Alloc.PolicyStrictReach Alloc.PolicyStrictYard.
Require Import ZifyBool.
Open Scope N_scope.

Lemma increasing_weaken m : forall lo lo' n, lo <= lo' -> strictly_increasing_below m lo' n = true -> strictly_increasing_below m lo n = true.
Proof.
  destruct m as [|g m]; intros lo lo' n Hle H; [reflexivity|].
  cbn [strictly_increasing_below] in *. apply andb_true_iff in H. destruct H as [H H3]. apply andb_true_iff in H. destruct H as [H1 H2].
  rewrite H2, H3. destruct (N.leb_spec lo g); [reflexivity|lia].
Qed.

Lemma sublists_increasing n : forall lo m, In m (sublists (seqN lo n)) -> strictly_increasing_below m lo (lo + N.of_nat n) = true.
Proof.
  induction n as [|n IH]; intros lo m Hm; cbn [seqN sublists] in Hm.
  - destruct Hm as [<-|[]]. reflexivity.
  - apply in_app_or in Hm. destruct Hm as [Hm|Hm].
    + apply in_map_iff in Hm. destruct Hm as (m' & <- & Hm'). apply IH in Hm'.
      replace (lo + 1 + N.of_nat n) with (lo + N.of_nat (S n)) in Hm' by lia.
      cbn [strictly_increasing_below]. rewrite Hm'.
      destruct (N.leb_spec lo lo), (N.ltb_spec lo (lo + N.of_nat (S n))); first [lia | reflexivity].
    + apply IH in Hm. replace (lo + 1 + N.of_nat n) with (lo + N.of_nat (S n)) in Hm by lia.
      eapply increasing_weaken; [|exact Hm]. lia.
Qed.

Lemma sublists_answer per m : In m (sublists (full_mask per)) -> strictly_increasing_below m 0 (len per) = true.
Proof. intros H. unfold full_mask in H. apply sublists_increasing in H. rewrite N.add_0_l in H. exact H. Qed.

(** an answer that is minimal for every row: feasible and among the tuples the brute force enumerates *)
Lemma minimal_tuple_exists rows :
  Forall (fun r => min_groups (fst (fst r)) (snd (fst r)) (snd r) <> None) rows ->
  exists ms, masks_feasible rows ms = true /\ minimal_answer rows ms /\ In ms (all_mask_tuples rows).
Proof.
  induction 1 as [|[[per u] f] rows Hr _ IH].
  - exists []. repeat split. left. reflexivity.
  - destruct IH as (ms & Hf & Hmin & Hin). cbn [fst snd] in Hr.
    pose proof (min_groups_correct per u f) as MC. destruct (min_groups per u f) as [k|] eqn:Ek; [|congruence].
    destruct MC as [(m & Hm & Hs & Hl) _].
    exists (m :: ms). split; [|split].
    + cbn [masks_feasible]. rewrite (sublists_answer _ _ Hm), rows_mean_sufficient, Hs, Hf. reflexivity.
    + cbn [minimal_answer]. rewrite Ek, Hl. auto.
    + cbn [all_mask_tuples]. apply in_flat_map. exists m. split; auto. apply in_map. auto.
Qed.

Lemma best_objective_ge tie rows entries ws : forall (l : list (list mask)) ms o,
  In ms l -> solver_objective tie rows entries ws ms = Some o ->
  exists b, fold_right (fun ms acc => match solver_objective tie rows entries ws ms, acc with
                                      | Some o, Some b => Some (Z.max o b)
                                      | Some o, None => Some o
                                      | None, _ => acc
                                      end) None l = Some b /\ (o <= b)%Z.
Proof.
  induction l as [|x l IH]; intros ms o Hin Ho; [destruct Hin|]. cbn [fold_right].
  destruct Hin as [->|Hin].
  - rewrite Ho. destruct (fold_right _ None l) as [b|]; eexists; split; try reflexivity; lia.
  - destruct (IH _ _ Hin Ho) as (b & Hb & Hle). rewrite Hb.
    destruct (solver_objective tie rows entries ws x) as [ox|]; eexists; split; try reflexivity; lia.
Qed.

Lemma feasible_ge_min rows : forall ms, masks_feasible rows ms = true ->
  Forall (fun r => min_groups (fst (fst r)) (snd (fst r)) (snd r) <> None) rows /\ mins_total rows <= total_groups ms.
Proof.
  induction rows as [|[[per u] f] rows IH]; intros [|m ms] H; cbn [masks_feasible] in H; try discriminate.
  - split; [constructor|]. unfold mins_total, total_groups. cbn [map row_mins]. lia.
  - apply andb_true_iff in H. destruct H as [H H3]. apply andb_true_iff in H. destruct H as [H1 H2].
    destruct (IH _ H3) as [IH1 IH2]. rewrite rows_mean_sufficient in H2.
    pose proof (min_groups_correct per u f) as MC.
    destruct (min_groups per u f) as [k|] eqn:Ek.
    + destruct MC as [_ Hmin]. specialize (Hmin m (answer_in_sublists _ _ H1) H2). split.
      * constructor; auto. cbn [fst snd]. congruence.
      * unfold mins_total, total_groups in *. cbn [map row_mins]. rewrite Ek, !sumN_cons. cbn [min_or0]. lia.
    + rewrite (MC m (answer_in_sublists _ _ H1)) in H2. discriminate.
Qed.

Lemma feasible_total_minimal rows : forall ms, masks_feasible rows ms = true ->
  total_groups ms <= mins_total rows -> minimal_answer rows ms.
Proof.
  induction rows as [|[[per u] f] rows IH]; intros [|m ms] H Hle; cbn [masks_feasible] in H; try discriminate; [exact I|].
  apply andb_true_iff in H. destruct H as [H H3]. apply andb_true_iff in H. destruct H as [H1 H2].
  destruct (feasible_ge_min _ _ H3) as [_ Hge]. rewrite rows_mean_sufficient in H2.
  pose proof (min_groups_correct per u f) as MC.
  destruct (min_groups per u f) as [k|] eqn:Ek.
  - destruct MC as [_ Hmin]. specialize (Hmin m (answer_in_sublists _ _ H1) H2).
    unfold mins_total, total_groups in *. cbn [map row_mins] in Hle. rewrite Ek, !sumN_cons in Hle. cbn [min_or0] in Hle.
    cbn [minimal_answer]. rewrite Ek. split; [f_equal; lia|]. apply IH; auto. lia.
  - rewrite (MC m (answer_in_sublists _ _ H1)) in H2. discriminate.
Qed.

(** optimal (as checked by the monitor) => minimal per entry *)
Theorem optimal_answer_minimal rows entries ms o b :
  solver_objective false rows entries [] ms = Some o ->
  best_objective false rows entries [] = Some b -> o = b ->
  minimal_answer rows ms.
Proof.
  intros Ho Hb ->. unfold solver_objective in Ho. destruct (masks_feasible rows ms) eqn:Hf; [|discriminate].
  cbn [weights_objective] in Ho. inversion Ho as [Hob]. clear Ho.
  destruct (feasible_ge_min _ _ Hf) as [Hsome Hge].
  destruct (minimal_tuple_exists _ Hsome) as (ms' & Hf' & Hmin' & Hin').
  assert (Ho' : solver_objective false rows entries [] ms' = Some (masks_objective false rows ms' + 0)%Z).
  { unfold solver_objective. rewrite Hf'. reflexivity. }
  destruct (best_objective_ge false rows entries [] _ _ _ Hin' Ho') as (b' & Hb' & Hle).
  unfold best_objective in Hb. rewrite Hb in Hb'. inversion Hb'; subst b'.
  rewrite !masks_objective_count in * by auto. rewrite (minimal_total _ _ Hmin') in Hle.
  apply feasible_total_minimal; auto.
  unfold GROUP_COST, OBJ_SCALE, ALLOC_GROUP_WEIGHT, ALLOC_UNIT_DIV, FPU, FRACTIONS_PER_UNIT in *. lia.
Qed.

(** in the terms of the monitor: [answer_optimal false] for the current free resources / for the empty worker gives
    the hypotheses of C16_strict_admission *)
Theorem answer_optimal_now d s0 ops s rq ms :
  init d = Ok s0 -> Forall valid_op ops -> run s0 ops = Ok s -> d_coupling d = [] ->
  answer_optimal false (a_free (s_alloc s)) (a_pools (s_alloc s)) (a_weights (s_alloc s)) rq ms = true ->
  minimal_answer (map (ref_row (a_pools (s_alloc s))) (coupled_entries (a_pools (s_alloc s)) rq)) ms.
Proof.
  intros Hi Hv Hr Hnc Hopt.
  pose proof (reachable_full _ _ _ _ Hi Hv Hr) as HF.
  destruct HF as [HI _]. pose proof (reachable_nodup _ _ _ _ Hi Hr) as Hn.
  destruct (init_static _ _ Hi) as (_ & _ & Hw0). destruct (run_static _ _ _ Hr) as [_ Hws].
  rewrite Hws, (Hw0 Hnc) in Hopt. unfold answer_optimal in Hopt.
  assert (Hcpl : Forall (fun e => is_coupled (a_pools (s_alloc s)) e = true) (coupled_entries (a_pools (s_alloc s)) rq)).
  { apply Forall_forall. intros e He. unfold coupled_entries in He. apply filter_In in He. tauto. }
  rewrite (solver_rows_now _ _ _ _ _ _ HI Hn Hcpl) in Hopt.
  destruct (solver_objective false _ _ [] ms) as [o|] eqn:Eo; [|discriminate].
  destruct (best_objective false _ _ []) as [b|] eqn:Eb; [|discriminate].
  apply Z.eqb_eq in Hopt. eapply optimal_answer_minimal; eauto.
Qed.

Theorem answer_optimal_yard d s0 rq w :
  init d = Ok s0 -> d_coupling d = [] ->
  (forall ms, w_yard w = Some ms ->
              answer_optimal false (map concise_state (a_pools (s_alloc s0))) (a_pools (s_alloc s0)) [] rq ms = true) ->
  yard_witness_ok (a_pools (s_alloc s0)) rq w.
Proof.
  intros Hi Hnc Hopt ms Hms. specialize (Hopt ms Hms). unfold answer_optimal in Hopt.
  assert (Hcpl : Forall (fun e => is_coupled (a_pools (s_alloc s0)) e = true) (coupled_entries (a_pools (s_alloc s0)) rq)).
  { apply Forall_forall. intros e He. unfold coupled_entries in He. apply filter_In in He. tauto. }
  rewrite (solver_rows_all _ _ Hcpl) in Hopt.
  destruct (solver_objective false _ _ [] ms) as [o|] eqn:Eo; [|discriminate].
  destruct (best_objective false _ _ []) as [b|] eqn:Eb; [|discriminate].
  apply Z.eqb_eq in Hopt. eapply optimal_answer_minimal; eauto.
Qed.

(** non-vacuity: the answers of PolicyStrictReach.strict_admission_example are optimal in the monitor's sense *)
Example answer_optimal_example :
  exists s0 s,
    init ex_strict_desc = Ok s0 /\ run s0 [OAlloc [mkEntry 0 (Req Scatter 20000)] no_wit] = Ok s
    /\ answer_optimal false (a_free (s_alloc s)) (a_pools (s_alloc s)) (a_weights (s_alloc s)) [mkEntry 0 (Req ForceTight 60000)] [[0; 1]] = true
    /\ answer_optimal false (map concise_state (a_pools (s_alloc s0))) (a_pools (s_alloc s0)) [] [mkEntry 0 (Req ForceTight 60000)] [[1]] = true.
Proof.
  eexists. eexists. split; [vm_compute; reflexivity|]. split; [vm_compute; reflexivity|]. split; vm_compute; reflexivity.
Qed.

Print Assumptions optimal_answer_minimal.
Print Assumptions answer_optimal_now.
Print Assumptions answer_optimal_yard.
