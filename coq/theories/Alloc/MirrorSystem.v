(** C04_concise_mirrors over whole operation sequences. *)
From Coq Require Import Permutation.
From HQ Require Import Base.Prelude Gen.Consts Alloc.Model Alloc.Spec Alloc.Lemmas Alloc.Group Alloc.Pool Alloc.Inv Alloc.Claims Alloc.Mirror Alloc.Theorems.
Require Import ZifyBool.
Open Scope N_scope.

Lemma cf_apply_app f a : forall b free,
  cf_apply f free (a ++ b) = match cf_apply f free a with Ok f1 => cf_apply f f1 b | Panic s => Panic s | Disabled => Disabled end.
Proof.
  induction a as [|ra a IH]; intros b free; simpl; auto.
  destruct (get_at free (ra_res ra)); simpl; auto. destruct (f a0 ra); simpl; auto.
Qed.

Lemma cf_apply_perm f al al' : Permutation al al' -> NoDup (map ra_res al) ->
  forall free free', cf_apply f free al = Ok free' -> cf_apply f free al' = Ok free'.
Proof.
  induction 1 as [|x l l' P IH|x y l|l l' l'' P1 IH1 P2 IH2]; intros Hnd free free' H; auto.
  - simpl in *. inversion Hnd; subst.
    destruct (get_at free (ra_res x)); simpl in *; try discriminate. destruct (f a x); simpl in *; try discriminate. eauto.
  - simpl in Hnd. inversion Hnd as [|? ? Hn1 Hnd1]; subst. assert (Hxy : ra_res y <> ra_res x) by (intros E; apply Hn1; left; auto).
    simpl in *.
    destruct (get_at free (ra_res y)) as [sy| |] eqn:Ey; simpl in H; try discriminate.
    destruct (f sy y) as [sy'| |] eqn:Efy; simpl in H; try discriminate.
    rewrite get_at_set_at_other in H by auto.
    destruct (get_at free (ra_res x)) as [sx| |] eqn:Ex; simpl in H; try discriminate.
    destruct (f sx x) as [sx'| |] eqn:Efx; simpl in H; try discriminate.
    assert (Hyx : ra_res x <> ra_res y) by congruence.
    cbn [bind]. rewrite Efx. cbn [bind]. rewrite get_at_set_at_other by auto. rewrite Ey. simpl. rewrite Efy. simpl.
    rewrite set_at_comm by auto. auto.
  - apply IH2; [|apply IH1; auto]. eapply Permutation_NoDup; [|eauto]. apply Permutation_map. auto.
Qed.

(** the summary mirrors the pools, resource by resource; nothing of the holdings enters *)
Definition PoolsMirror (pools : list pool) (free : list cstate) : Prop :=
  length free = length pools
  /\ forall n p c, nth_error pools n = Some p -> nth_error free n = Some c -> pool_mirror p c.

Definition PoolsInv (pools0 pools : list pool) (free : list cstate) (Hf : N -> list aidx) (Tf : N -> N) : Prop :=
  PoolsCore pools0 pools Hf Tf /\ PoolsMirror pools free.

Lemma PoolsInv_ext pools0 pools free Hf Tf Hf' Tf' :
  (forall r, Permutation (Hf r) (Hf' r)) -> (forall r, Tf r = Tf' r) ->
  PoolsInv pools0 pools free Hf Tf -> PoolsInv pools0 pools free Hf' Tf'.
Proof. intros E1 E2 [HC HM]. split; [eapply PoolsCore_ext; eauto|exact HM]. Qed.

Lemma PoolsInv_core pools0 pools free Hf Tf : PoolsInv pools0 pools free Hf Tf -> PoolsCore pools0 pools Hf Tf.
Proof. intros [HC _]. exact HC. Qed.

Lemma PoolsInv_at pools0 pools free Hf Tf r p :
  PoolsInv pools0 pools free Hf Tf -> nth_error pools (nat_of r) = Some p ->
  exists p0 c, nth_error pools0 (nat_of r) = Some p0 /\ get_at free r = Ok c /\ PoolInv p0 p c (Hf r) (Tf r).
Proof.
  intros [[L HC] [LM HM]] Hp.
  assert (Hlt : r < len pools) by (apply nth_error_some_lt in Hp; unfold len, nat_of in *; lia).
  destruct (get_at_lt free r) as [c Hc]; [unfold len in *; lia|].
  destruct (nth_error pools0 (nat_of r)) as [p0|] eqn:E0; [|apply nth_error_None in E0; unfold len, nat_of in *; lia].
  exists p0, c. split; auto. split; auto. apply PoolInv_split. split.
  - apply HC; auto. unfold len in *; lia.
  - eapply HM; eauto. apply (get_at_nth _ _ _ Hc).
Qed.

Lemma PoolsInv_nth pools0 pools free Hf Tf r p0 p c :
  PoolsInv pools0 pools free Hf Tf -> r < len pools0 -> nth_error pools0 (nat_of r) = Some p0 ->
  nth_error pools (nat_of r) = Some p -> nth_error free (nat_of r) = Some c -> PoolInv p0 p c (Hf r) (Tf r).
Proof. intros [[_ HC] [_ HM]] Hr H0 Hp Hc. apply PoolInv_split. split; [apply HC; auto | eapply HM; eauto]. Qed.

Lemma PoolsMirror_set pools free r p' c' :
  PoolsMirror pools free -> pool_mirror p' c' -> PoolsMirror (set_at pools r p') (set_at free r c').
Proof.
  intros [L HM] Hm. split; [rewrite !set_at_length; exact L|]. intros n p c Hp Hc. rewrite nth_error_set_at in Hp. rewrite nth_error_set_at in Hc.
  assert (E : len free = len pools) by (unfold len; rewrite L; reflexivity). rewrite E in Hc.
  destruct ((r <? len pools) && Nat.eqb (nat_of r) n); [inversion Hp; inversion Hc; subst; exact Hm | eauto].
Qed.

Lemma PoolsInv_claim pools0 pools free Hf Tf rid p p' rq ra :
  PoolsInv pools0 pools free Hf Tf -> get_at pools rid = Ok p -> claim_ok p p' rid rq ra = true ->
  exists c c', get_at free rid = Ok c /\ cs_remove c ra = Ok c'
    /\ PoolsInv pools0 (set_at pools rid p') (set_at free rid c') (fun r => Hf r ++ one_ra ra r) (fun r => Tf r + one_sum p ra r).
Proof.
  intros HPI Hg Hok. destruct (PoolsInv_at _ _ _ _ _ _ _ HPI (get_at_nth _ _ _ Hg)) as (p0 & c & E0 & Hc & HIp).
  destruct (claim_PoolInv _ _ _ _ _ _ _ _ _ HIp Hok) as (c' & Hrm & HI').
  exists c, c'. split; auto. split; auto. destruct HPI as [HC HM].
  split; [eapply PoolsCore_claim; eauto | apply PoolsMirror_set; auto; apply PoolInv_split in HI'; apply HI'].
Qed.

Definition ra_wf_at (pools0 : list pool) (ra : ralloc) : Prop :=
  forall p0, nth_error pools0 (nat_of (ra_res ra)) = Some p0 -> ra_wf p0 ra.

Lemma ra_wf_kind p0 p ra : same_kind p0 p = true -> ra_wf p ra -> ra_wf p0 ra.
Proof. destruct p0, p; simpl; auto; discriminate. Qed.

Lemma claim_ok_wf p p' rid rq ra : claim_ok p p' rid rq ra = true -> ra_wf p ra.
Proof.
  intros H. destruct (claim_ok_inv _ _ _ _ _ H) as (_ & _ & _ & _ & C).
  destruct p; simpl; auto; destruct p'; try tauto.
Qed.

Section ClaimsM.
  Variable pools0 : list pool.
  Variables (Hl : N -> list aidx) (Tl : N -> N).
  Variable free0 : list cstate.
  Variable rq0 : request.

  Definition granted_for (ra : ralloc) : Prop := exists e, In e rq0 /\ ra_exact pools0 e ra = true.

  Definition AccM (pools : list pool) (acc : allocation) (ghost : list cstate) : Prop :=
    PoolsInv pools0 pools ghost (fun r => Hl r ++ flat_al acc r) (fun r => Tl r + sum_taken pools0 acc r)
    /\ cf_remove free0 acc = Ok ghost
    /\ Forall (fun ra => ra_wf_at pools0 ra /\ granted_for ra) acc.

  Lemma AccM_step pools acc ghost e p p' ra :
    AccM pools acc ghost -> In e rq0 -> get_at pools (e_res e) = Ok p -> claim_ok p p' (e_res e) (e_req e) ra = true ->
    exists ghost', AccM (set_at pools (e_res e) p') (acc ++ [ra]) ghost'.
  Proof.
    set (rid := e_res e). set (rq := e_req e).
    intros (HA & HB & HC) Hin Hg Hok. pose proof (claim_ok_inv _ _ _ _ _ Hok) as (Hres & Ham & Hkk & _ & Hcl).
    destruct (PoolsInv_claim _ _ _ _ _ _ _ _ _ _ HA Hg Hok) as (c & c' & Gc & Rc & X).
    exists (set_at ghost rid c'). split; [|split].
    - eapply PoolsInv_ext; [| |exact X]; intros r; cbv beta.
      + rewrite flat_al_app, flat_al_one, app_assoc. auto.
      + rewrite sum_taken_app, (one_sum_taken pools0 pools _ _ rid p ra r (PoolsInv_core _ _ _ _ _ HA) Hg Hres). lia.
    - unfold cf_remove in *. rewrite cf_apply_app, HB. simpl. rewrite Hres, Gc. simpl. rewrite Rc. simpl. auto.
    - apply Forall_app. split; auto. constructor; auto.
      destruct (PoolsInv_at _ _ _ _ _ _ _ HA (get_at_nth _ _ _ Hg)) as (p0 & c0 & E0 & _ & (K & F & _)).
      split.
      + intros q0 H0. rewrite Hres in H0. fold rid in E0. assert (q0 = p0) by congruence. subst q0.
        eapply ra_wf_kind; eauto. eapply claim_ok_wf; eauto.
      + exists e. split; auto. unfold ra_exact. fold rid. rewrite E0.
        rewrite Hres, N.eqb_refl. fold rq. rewrite <- F, Ham, N.eqb_refl. simpl.
        rewrite <- (same_kind_sum _ _ K).
        destruct p; try contradiction; destruct p'; try discriminate Hkk; simpl.
        * destruct Hcl as (S1 & S2 & _). rewrite S1, S2, Ham, N.eqb_refl. auto.
        * destruct Hcl as (S1 & S2 & _). rewrite S1, S2, Ham, N.eqb_refl. auto.
        * destruct Hcl as (_ & _ & S3). rewrite S3. auto.
  Qed.
End ClaimsM.

Definition FullInv (pools0 : list pool) (s : sys) : Prop :=
  PoolsInv pools0 (a_pools (s_alloc s)) (a_free (s_alloc s)) (HL (s_live s)) (TL pools0 (s_live s))
  /\ Forall (Forall (ra_wf_at pools0)) (s_live s).

Lemma claim_resources_full pools0 a live rq w pools' al free' :
  PoolsInv pools0 (a_pools a) (a_free a) (HL live) (TL pools0 live) ->
  NoDup (map e_res rq) ->
  claim_resources a rq w = Ok (pools', al) -> cf_remove (a_free a) al = Ok free' ->
  PoolsInv pools0 pools' free' (HL (live ++ [al])) (TL pools0 (live ++ [al]))
  /\ Forall (fun ra => ra_wf_at pools0 ra /\ granted_for pools0 rq ra) al.
Proof.
  intros HP Hnd Hc Hf.
  destruct (claim_resources_claims _ _ _ _ _ Hc) as (trd & trc & ms & Htr & Hperm & _ & _ & _ & _ & Hent).
  set (tr := trd ++ trc) in *.
  assert (HA0 : AccM pools0 (HL live) (TL pools0 live) (a_free a) rq (a_pools a) [] (a_free a))
    by (split; [split; [apply PoolsCore_nil|]; apply HP|split; [reflexivity|constructor]]).
  pose proof (claims_res _ _ _ _ Htr) as Hres.
  apply (claims_fold (fun ps acc => exists gh, AccM pools0 (HL live) (TL pools0 live) (a_free a) rq ps acc gh) w tr) with (acc := []) in Htr;
    eauto using incl_refl.
  2:{ intros ps acc c ps' Hin [gh HA] (p & p' & Hg & -> & Hok & _). eapply AccM_step; eauto.
      eapply Permutation_in; [exact Hent|]. apply in_map. exact Hin. }
  destruct Htr as (gh & HX & HY & HZ). cbn [app] in *.
  (* the summary is updated in the order of the sorted allocation: the same, the resource ids being distinct *)
  assert (gh = free').
  { assert (E : cf_remove (a_free a) al = Ok gh); [|congruence]. eapply cf_apply_perm; eauto.
    rewrite Hres. unfold cl_res. rewrite <- (map_map cl_entry e_res).
    eapply Permutation_NoDup; [apply Permutation_sym, Permutation_map, Hent|exact Hnd]. }
  subst gh. split; [|eapply Permutation_Forall; eauto].
  eapply PoolsInv_ext; [| |exact HX]; intros r; cbv beta; rewrite ?HL_app, ?TL_app.
  - apply Permutation_app_head. unfold flat_al. apply Permutation_flat_map. auto.
  - f_equal. unfold sum_taken. destruct (nth_error pools0 (nat_of r)); auto. destruct (pool_is_sum p); auto.
    unfold alloc_sum_amount. apply sumN_map_perm; auto.
Qed.

(** release: ConciseFreeResources::add and the pools walk the same list *)
Lemma release_full pools0 al : forall pools free Hb Tb pools',
  PoolsInv pools0 pools free (fun r => Hb r ++ flat_al al r) (fun r => Tb r + sum_taken pools0 al r) ->
  Forall (ra_wf_at pools0) al ->
  release_helper pools al = Ok pools' ->
  exists free', cf_add free al = Ok free' /\ PoolsInv pools0 pools' free' Hb Tb.
Proof.
  induction al as [|ra al IH]; intros pools free Hb Tb pools' HP Hwf Hr; simpl in Hr.
  - inversion Hr; subst. exists free. split; [reflexivity|]. split; [apply PoolsCore_nil|]; apply HP.
  - inversion Hwf as [|? ? Hw1 Hwf']; subst.
    destruct (get_at pools (ra_res ra)) as [p| |] eqn:Eg; simpl in Hr; try discriminate.
    destruct (pool_release p ra) as [p'| |] eqn:Er; simpl in Hr; try discriminate.
    destruct (PoolsInv_at _ _ _ _ _ _ _ HP (get_at_nth _ _ _ Eg)) as (p0 & c & E0 & Hc & (K & _)).
    destruct HP as [HC HM].
    assert (Hwfp : ra_wf p ra).
    { specialize (Hw1 p0 E0). destruct p0, p; simpl in *; auto; discriminate. }
    destruct (release_mirror _ _ c _ _ _ p' (release_reorder _ _ _ _ _ _ _ _ HC E0 Eg)) as (c' & Hadd & Hm'); auto.
    { apply (proj2 HM _ _ _ (get_at_nth _ _ _ Eg) (get_at_nth _ _ _ Hc)). }
    destruct (IH (set_at pools (ra_res ra) p') (set_at free (ra_res ra) c') Hb Tb pools') as (free' & A & B); auto.
    + split; [eapply PoolsCore_release; eauto | apply PoolsMirror_set; auto].
    + exists free'. split; auto. unfold cf_add in *. simpl. rewrite Hc. simpl. rewrite Hadd. simpl. auto.
Qed.

Definition valid_op (o : op) : Prop := match o with OAlloc rq _ => NoDup (map e_res rq) | _ => True end.

Lemma nth_remove_nth_forall {A} (P : A -> Prop) l k : Forall P l -> Forall P (remove_nth l k).
Proof. intros H; revert k; induction H; intros [|k]; simpl; auto. Qed.

Lemma step_full pools0 s o s' out : FullInv pools0 s -> valid_op o -> step s o = Ok (s', out) -> FullInv pools0 s'.
Proof.
  intros [HI HW] Hv Hs.
  destruct (step_inv _ _ _ _ Hs) as [(rq & w & ok & yard & _ & -> & _)|[(rq & w & yard & pools & al & free & -> & _ & _ & Ec & Ef & ->)|(k & al & free1 & pools & _ & _ & En & Ea & Er & ->)]].
  - split; auto.
  - destruct (claim_resources_full pools0 _ (s_live s) rq w pools al free HI Hv Ec Ef) as [A B].
    split; cbn [s_alloc s_live a_pools a_free]; auto. apply Forall_app. split; auto. constructor; auto.
    eapply Forall_impl; [|exact B]. intros x [X _]. auto.
  - destruct (release_full pools0 al (a_pools (s_alloc s)) (a_free (s_alloc s))
                (HL (remove_nth (s_live s) (nat_of k))) (TL pools0 (remove_nth (s_live s) (nat_of k))) pools) as (free' & A & B); auto.
    + eapply PoolsInv_ext; [| |exact HI]; intros r; cbv beta.
      * unfold HL. apply flat_live_remove; auto.
      * apply TL_remove; auto.
    + eapply Forall_nth; eauto.
    + split; cbn [s_alloc s_live a_pools a_free]; [congruence|]. apply nth_remove_nth_forall; auto.
Qed.

Lemma run_full pools0 ops : forall s s', FullInv pools0 s -> Forall valid_op ops -> run s ops = Ok s' -> FullInv pools0 s'.
Proof.
  induction ops as [|o ops IH]; intros s s' HI Hv Hr; simpl in Hr.
  - inversion Hr; subst; auto.
  - inversion Hv; subst. destruct (step s o) as [[s1 out]| |] eqn:Es; simpl in Hr; try discriminate.
    eapply IH; [|eauto|eauto]. eapply step_full; eauto.
Qed.

Lemma gs_mirror_refl gs : gs_mirror gs (map (fun g => mkCgroup (len (g_idx g)) (g_fr g)) gs).
Proof. induction gs; simpl; constructor; auto. split; simpl; auto. Qed.

Lemma sum_mirror_concise f free : sum_mirror free (concise_state (PSum f free)).
Proof.
  unfold concise_state. destruct (split_recompose free) as [Hrec Hm]. destruct (split free) as [u fr]. cbn [fst snd] in Hrec, Hm.
  eexists. split; [reflexivity|]. cbn [c_units c_fr].
  destruct (N.ltb_spec 0 fr); unfold fget0; simpl.
  - repeat split; auto. intros i Hi. destruct (N.eqb_spec 0 i); [congruence|auto].
  - repeat split; auto; lia.
Qed.

Lemma pool_mirror_concise p : pool_mirror p (concise_state p).
Proof.
  destruct p; cbn [pool_mirror concise_state pool_groups];
    [constructor | apply (gs_mirror_refl [g]) | apply gs_mirror_refl | apply (sum_mirror_concise full free)].
Qed.

Lemma init_full d s0 : init d = Ok s0 -> FullInv (a_pools (s_alloc s0)) s0.
Proof.
  intros Hi. destruct (init_core _ _ Hi) as [HC Hl]. destruct (init_inv _ _ Hi) as (pools & ws & -> & _).
  split; [|rewrite Hl; constructor]. split; [exact HC|]. cbn [s_alloc a_pools a_free]. split; [apply map_length|].
  intros n p c Hp Hc. rewrite nth_error_map, Hp in Hc. inversion Hc; subst c. apply pool_mirror_concise.
Qed.

Lemma reachable_full d s0 ops s :
  init d = Ok s0 -> Forall valid_op ops -> run s0 ops = Ok s -> FullInv (a_pools (s_alloc s0)) s.
Proof. intros Hi Hv Hr. eapply run_full; [apply (init_full d); auto | eauto | eauto]. Qed.

Lemma fmap_sub0_pointwise a b : (forall i, fget0 b i = fget0 a i) -> fmap_sub0 a b = true.
Proof. intros H. unfold fmap_sub0. apply forallb_forall. intros kv _. apply N.eqb_eq. auto. Qed.

Lemma cstate_equiv_groups gs c : gs_mirror gs c -> cstate_equiv (map (fun g => mkCgroup (len (g_idx g)) (g_fr g)) gs) c = true.
Proof.
  induction 1 as [|g cg gs c [Hu Hf] _ IH]; simpl; auto.
  rewrite IH, andb_true_r. unfold cgroup_equiv. simpl.
  rewrite (fmap_sub0_pointwise (g_fr g) (c_fr cg)) by auto.
  rewrite (fmap_sub0_pointwise (c_fr cg) (g_fr g)) by (intros; symmetry; auto).
  rewrite !andb_true_r. apply N.eqb_eq. auto.
Qed.

Lemma cstate_equiv_sum f free c : sum_mirror free c -> cstate_equiv (concise_state (PSum f free)) c = true.
Proof.
  intros (cg & -> & Hs & Hl & Ho). unfold concise_state.
  destruct (split_recompose free) as [Hrec Hm]. destruct (split free) as [u fr]. cbn [fst snd] in Hrec, Hm.
  simpl. rewrite andb_true_r. unfold cgroup_equiv. cbn [c_units c_fr].
  assert (Hu : u = c_units cg /\ fr = fget0 (c_fr cg) 0) by (unfold FPU, FRACTIONS_PER_UNIT in *; lia).
  destruct Hu as [Hu Hf0].
  assert (Hp : forall i, fget0 (c_fr cg) i = fget0 (if 0 <? fr then [(0, fr)] else []) i).
  { intros i. destruct (N.ltb_spec 0 fr); unfold fget0 at 2; simpl.
    - destruct (N.eqb_spec 0 i); [subst; auto | apply Ho; auto].
    - destruct (N.eq_dec i 0); [subst; lia | apply Ho; auto]. }
  rewrite (fmap_sub0_pointwise _ (c_fr cg)) by auto.
  rewrite (fmap_sub0_pointwise (c_fr cg) _) by (intros; symmetry; auto).
  rewrite !andb_true_r. apply N.eqb_eq. auto.
Qed.

Lemma mirror_ok_from_nth : forall pools free,
  length pools = length free ->
  (forall n p c, nth_error pools n = Some p -> nth_error free n = Some c -> cstate_equiv (concise_state p) c = true) ->
  mirror_ok pools free = true.
Proof.
  induction pools as [|p pools IH]; intros [|c free] L H; simpl in L; try discriminate; auto.
  simpl. rewrite (H O p c) by auto. simpl. apply IH; [lia|]. intros n q d Hq Hd. apply (H (S n)); auto.
Qed.

Lemma full_mirror_ok pools0 s : FullInv pools0 s -> mirror_ok (a_pools (s_alloc s)) (a_free (s_alloc s)) = true.
Proof.
  intros [[_ [L H]] _]. apply mirror_ok_from_nth; [congruence|].
  intros n p c Hp Hc. specialize (H n p c Hp Hc).
  destruct p; cbn [pool_mirror pool_groups] in H.
  - inversion H; subst. reflexivity.
  - apply (cstate_equiv_groups [g]). auto.
  - apply cstate_equiv_groups. auto.
  - apply cstate_equiv_sum. auto.
Qed.

(** C04_concise_mirrors: in every reachable state the admission summary equals the summary recomputed
    from the pools (the debug-only validate() of the allocator, as a theorem) - for all sequences of
    operations whose requests have pairwise distinct resource ids (ResourceRequest::validate). *)
Theorem concise_mirrors_thm d s0 ops s :
  init d = Ok s0 -> Forall valid_op ops -> run s0 ops = Ok s ->
  mirror_ok (a_pools (s_alloc s)) (a_free (s_alloc s)) = true.
Proof.
  intros Hi Hv Hr. apply (full_mirror_ok (a_pools (s_alloc s0))). eapply reachable_full; eauto.
Qed.

(** release never panics for a live allocation (neither in the pools - whenever the pool side is Ok the
    concise side is too; pool side: C04_release_no_panic) *)
Theorem release_concise_no_panic d s0 ops s k al pools' :
  init d = Ok s0 -> Forall valid_op ops -> run s0 ops = Ok s ->
  nth_error (s_live s) (nat_of k) = Some al ->
  release_helper (a_pools (s_alloc s)) al = Ok pools' ->
  exists free', cf_add (a_free (s_alloc s)) al = Ok free'.
Proof.
  intros Hi Hv Hr Hn Hrel.
  pose proof (reachable_full _ _ _ _ Hi Hv Hr) as HF.
  destruct HF as [HI HW].
  destruct (release_full (a_pools (s_alloc s0)) al (a_pools (s_alloc s)) (a_free (s_alloc s))
              (HL (remove_nth (s_live s) (nat_of k))) (TL (a_pools (s_alloc s0)) (remove_nth (s_live s) (nat_of k))) pools') as (free' & A & B); eauto.
  - eapply PoolsInv_ext; [| |exact HI]; intros r; cbv beta.
    + unfold HL. apply flat_live_remove; auto.
    + apply TL_remove; auto.
  - eapply Forall_nth; eauto.
Qed.

Lemma claim_resources_len a rq w pools' al : claim_resources a rq w = Ok (pools', al) -> length al = length rq.
Proof.
  intros Hc. destruct (claim_resources_claims _ _ _ _ _ Hc) as (trd & trc & ms & _ & Hperm & _ & _ & _ & _ & Hent).
  rewrite <- (Permutation_length Hperm), <- (Permutation_length Hent), !map_length. reflexivity.
Qed.

(** C04_exact_amount: every grant consists of exactly one resource allocation per entry of the request,
    each with exactly the requested amount (the full size for `all`), whole indices followed by at most one
    fractional index whose parts add up to the amount (no indices for a sum resource). *)
Theorem exact_amount_thm d s0 ops s rq w s' al :
  init d = Ok s0 -> Forall valid_op ops -> run s0 ops = Ok s -> NoDup (map e_res rq) ->
  step s (OAlloc rq w) = Ok (s', OutGrant al) ->
  exact_amount_set_ok (worker_pools s0) rq al = true.
Proof.
  intros Hi Hv Hr Hnd Hs.
  pose proof (reachable_full _ _ _ _ Hi Hv Hr) as HF.
  destruct HF as [HI HW]. destruct (step_grant_inv _ _ _ _ _ Hs) as (yard & pools & free' & _ & Ec & Ef & _).
  destruct (claim_resources_full (a_pools (s_alloc s0)) _ (s_live s) rq w pools al free' HI Hnd Ec Ef) as [A B].
  unfold exact_amount_set_ok, worker_pools. apply andb_true_iff. split.
  - apply N.eqb_eq. unfold len. f_equal. eapply claim_resources_len; eauto.
  - apply forallb_forall. intros ra Hin. rewrite Forall_forall in B. destruct (B ra Hin) as [_ (e & He & Hx)].
    apply existsb_exists. exists e. auto.
Qed.
