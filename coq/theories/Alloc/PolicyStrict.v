(** C16 - strict policies at the level of a whole request (several coupled entries), no coupling weights,
    first admission test of the request (cache miss): has_resources_for_request admits EXACTLY when the solver's
    answer for the current free resources selects in total at most as many groups as its answer for the empty
    worker.  (Alloc.Objective treats one entry and only the direction "admitted => ...".) *)
From Coq Require Import Permutation.
From HQ Require Import Base.Prelude Gen.Consts Alloc.Model Alloc.Spec Alloc.Lemmas Alloc.Admission Alloc.Objective.
Require Import ZifyBool.
Open Scope N_scope.

Definition total_groups (masks : list mask) : N := sumN (map (fun m : mask => len m) masks).

Definition full_masks (rows : list (list (N * N) * N * N)) : list mask := map (fun r => full_mask (fst (fst r))) rows.

(** without the tie-breaking terms and without coupling weights the objective counts the selected groups *)
Lemma masks_objective_count rows : forall masks,
  masks_feasible rows masks = true ->
  masks_objective false rows masks = (- GROUP_COST * Z.of_N (total_groups masks))%Z.
Proof.
  induction rows as [|[[per u] f] rows IH]; intros [|m masks] H; cbn [masks_feasible] in H; try discriminate.
  - unfold total_groups. cbn [masks_objective map]. rewrite sumN_nil. lia.
  - apply andb_true_iff in H. destruct H as [H H3]. apply andb_true_iff in H. destruct H as [H1 H2].
    cbn [masks_objective]. rewrite (IH _ H3).
    pose proof (in_range_full _ _ (answer_in_sublists _ _ H1)) as Hr.
    unfold total_groups. cbn [map]. rewrite sumN_cons, N2Z.inj_add.
    destruct (N.eq_dec f 0) as [->|Hf].
    + rewrite objective_int by auto. ring.
    + rewrite objective_frac by auto. ring.
Qed.

Lemma group_solver_nw_some free entries tie ms r :
  group_solver free entries [] tie (Some ms) = Ok r ->
  exists rows, solver_rows free entries = Ok rows /\ masks_feasible rows ms = true
               /\ r = Some (ms, (masks_objective tie rows ms + 0)%Z).
Proof.
  unfold group_solver. intros H.
  destruct (solver_rows free entries) as [rows| |]; cbn [bind weights_objective] in H; try discriminate.
  destruct (masks_feasible rows ms) eqn:Ef; try discriminate. inversion H; subst. eauto.
Qed.

Lemma group_solver_nw_none free entries tie r :
  group_solver free entries [] tie None = Ok r ->
  exists rows, solver_rows free entries = Ok rows /\ masks_feasible rows (full_masks rows) = false /\ r = None.
Proof.
  unfold group_solver. intros H.
  destruct (solver_rows free entries) as [rows| |]; cbn [bind weights_objective] in H; try discriminate.
  fold (full_masks rows) in H. destruct (masks_feasible rows (full_masks rows)) eqn:Ef; try discriminate.
  inversion H; subst. eauto.
Qed.

(** the 0.1 slack is smaller than the cost of one group *)
Lemma strict_compare (k_now k_all : N) :
  Z.leb (- GROUP_COST * Z.of_N k_all + 0 - SLACK) (- GROUP_COST * Z.of_N k_now + 0) = (k_now <=? k_all).
Proof.
  unfold GROUP_COST, SLACK, OBJ_SCALE, ALLOC_GROUP_WEIGHT, ALLOC_SLACK_TENTHS, ALLOC_UNIT_DIV, FPU, FRACTIONS_PER_UNIT.
  destruct (N.leb_spec k_now k_all); [apply Z.leb_le | apply Z.leb_gt]; lia.
Qed.

(** ResourceAllocator::has_resources_for_request when the per-entry tests pass, some coupled entry is strict and
    there are no coupling weights: what is compared, whether the yardstick of the request is cached or not *)
Theorem strict_admission_shape a rq w ok yard cp :
  a_weights a = [] ->
  hr_entries (a_pools a) (a_free a) rq [] = Ok (true, cp) ->
  forallb (fun e => negb (is_forced (e_req e))) cp = false ->
  has_resources a rq w = Ok (ok, yard) ->
  exists rows_now, solver_rows (a_free a) cp = Ok rows_now
    /\ ((w_adm w = None /\ masks_feasible rows_now (full_masks rows_now) = false /\ ok = false /\ yard = a_yard a)
        \/ exists ms_now, w_adm w = Some ms_now /\ masks_feasible rows_now ms_now = true
             /\ match yard_lookup (a_yard a) rq with
                | Some c => ok = Z.leb c (- GROUP_COST * Z.of_N (total_groups ms_now) + 0) /\ yard = a_yard a
                | None => exists ms_all rows_all,
                            w_yard w = Some ms_all /\ solver_rows (a_all a) cp = Ok rows_all
                            /\ masks_feasible rows_all ms_all = true
                            /\ ok = (total_groups ms_now <=? total_groups ms_all)
                            /\ yard = (rq, (- GROUP_COST * Z.of_N (total_groups ms_all) + 0 - SLACK)%Z) :: a_yard a
                end).
Proof.
  intros Hws Hhr Hforced Hh. unfold has_resources in Hh. rewrite Hhr in Hh. cbn [bind negb] in Hh.
  rewrite Hforced, Hws in Hh.
  destruct (w_adm w) as [ms_now|].
  - destruct (group_solver (a_free a) cp [] false (Some ms_now)) as [r| |] eqn:Eg; cbn [bind] in Hh; try discriminate.
    destruct (group_solver_nw_some _ _ _ _ _ Eg) as (rows_now & Hrows & Hfeas & ->).
    exists rows_now. split; auto. right. exists ms_now. split; auto. split; auto.
    destruct (yard_lookup (a_yard a) rq) as [c|].
    + inversion Hh; subst. rewrite masks_objective_count by auto. auto.
    + destruct (w_yard w) as [ms_all|].
      * destruct (group_solver (a_all a) cp [] false (Some ms_all)) as [r| |] eqn:Eg2; cbn [bind] in Hh; try discriminate.
        destruct (group_solver_nw_some _ _ _ _ _ Eg2) as (rows_all & Hrows2 & Hfeas2 & ->).
        exists ms_all, rows_all. inversion Hh; subst. rewrite !masks_objective_count by auto.
        repeat split; auto. apply strict_compare.
      * destruct (group_solver (a_all a) cp [] false None) as [r| |] eqn:Eg2; cbn [bind] in Hh; try discriminate.
        destruct (group_solver_nw_none _ _ _ _ Eg2) as (rows_all & _ & _ & ->). discriminate.
  - destruct (group_solver (a_free a) cp [] false None) as [r| |] eqn:Eg; cbn [bind] in Hh; try discriminate.
    destruct (group_solver_nw_none _ _ _ _ Eg) as (rows_now & Hrows & Hinf & ->).
    exists rows_now. split; auto. left. inversion Hh; subst. auto.
Qed.


Fixpoint minimal_answer (rows : list (list (N * N) * N * N)) (masks : list mask) : Prop :=
  match rows, masks with
  | [], [] => True
  | (per, u, f) :: rows', m :: masks' => min_groups per u f = Some (len m) /\ minimal_answer rows' masks'
  | _, _ => False
  end.

Fixpoint row_mins (rows : list (list (N * N) * N * N)) : list (option N) :=
  match rows with [] => [] | (per, u, f) :: rows' => min_groups per u f :: row_mins rows' end.

Lemma minimal_answer_mins rows : forall masks, minimal_answer rows masks ->
  row_mins rows = map (fun m : mask => Some (len m)) masks.
Proof.
  induction rows as [|[[per u] f] rows IH]; intros [|m masks] H; cbn [minimal_answer] in H; try contradiction; [reflexivity|].
  destruct H as [H1 H2]. cbn [row_mins map]. rewrite H1, (IH _ H2). reflexivity.
Qed.

(** the rows of the empty worker dominate the rows now: whatever selection holds the amount now, holds it on
    the empty worker *)
Fixpoint rows_dominated (rows_now rows_all : list (list (N * N) * N * N)) : Prop :=
  match rows_now, rows_all with
  | [], [] => True
  | (pn, un, fn) :: rn, (pa, ua, fa) :: ra =>
      un = ua /\ fn = fa /\ len pn = len pa
      /\ (forall m, sufficient pn un fn m = true -> sufficient pa ua fa m = true)
      /\ rows_dominated rn ra
  | _, _ => False
  end.

Lemma min_groups_dominated per_now per_all u f k_now :
  len per_now = len per_all ->
  (forall m, sufficient per_now u f m = true -> sufficient per_all u f m = true) ->
  min_groups per_now u f = Some k_now -> exists k_all, min_groups per_all u f = Some k_all /\ k_all <= k_now.
Proof.
  intros Hlen Hdom Hn.
  pose proof (min_groups_correct per_now u f) as Cn. rewrite Hn in Cn. destruct Cn as [(m & Hm & Hs & Hl) _].
  assert (Hfm : full_mask per_now = full_mask per_all).
  { unfold full_mask. f_equal. unfold len in Hlen. lia. }
  rewrite Hfm in Hm. pose proof (min_groups_correct per_all u f) as Ca.
  destruct (min_groups per_all u f) as [ka|].
  - exists ka. split; auto. destruct Ca as [_ Hmin]. specialize (Hmin m Hm (Hdom m Hs)). lia.
  - specialize (Hdom m Hs). rewrite (Ca m Hm) in Hdom. discriminate.
Qed.

Definition opt_eqb (a b : option N) : bool :=
  match a, b with Some x, Some y => x =? y | None, None => true | _, _ => false end.

(** with a minimal answer now: every row of the empty worker has a minimum; in total at most as many groups are
    selected now as these minima [ks] iff every entry is at its empty-worker minimum (never fewer) *)
Lemma counts_iff_minima rows_now : forall rows_all ms_now,
  rows_dominated rows_now rows_all -> minimal_answer rows_now ms_now ->
  exists ks, row_mins rows_all = map Some ks
    /\ (total_groups ms_now <=? sumN ks) = list_eqb opt_eqb (row_mins rows_now) (row_mins rows_all)
    /\ sumN ks <= total_groups ms_now.
Proof.
  induction rows_now as [|[[pn un] fn] rn IH]; intros [|[[pa ua] fa] ra] [|mn msn] Hd Hn;
    cbn [rows_dominated minimal_answer] in *; try contradiction.
  - exists []. split; [reflexivity|]. split; [reflexivity|]. unfold total_groups. cbn [map]. lia.
  - destruct Hd as (-> & -> & Hlen & Hdom & Hd'). destruct Hn as [Hn1 Hn2].
    destruct (min_groups_dominated _ _ _ _ _ Hlen Hdom Hn1) as (ka & Ha & Hle).
    destruct (IH _ _ Hd' Hn2) as (ks & Hk & Heq & Hle').
    exists (ka :: ks). cbn [row_mins map list_eqb]. rewrite Hn1, Ha, <- Hk. split; [reflexivity|].
    cbn [opt_eqb]. rewrite <- Heq. unfold total_groups in *. cbn [map]. rewrite !sumN_cons. split; [|lia].
    destruct (N.eqb_spec (len mn) ka), (N.leb_spec (sumN (map (fun m : mask => len m) msn)) (sumN ks)),
      (N.leb_spec (len mn + sumN (map (fun m : mask => len m) msn)) (ka + sumN ks)); cbn [andb]; auto; lia.
Qed.

Lemma map_Some_inj {A} (l l' : list A) : map Some l = map Some l' -> l = l'.
Proof. revert l'; induction l as [|x l IH]; intros [|y l'] H; cbn [map] in H; try discriminate; [reflexivity|]. inversion H. f_equal; auto. Qed.

Lemma counts_iff_at_minimum rows_now : forall rows_all ms_now ms_all,
  rows_dominated rows_now rows_all ->
  minimal_answer rows_now ms_now -> minimal_answer rows_all ms_all ->
  (total_groups ms_now <=? total_groups ms_all) = list_eqb opt_eqb (row_mins rows_now) (row_mins rows_all).
Proof.
  intros rows_all ms_now ms_all Hd Hn Ha. destruct (counts_iff_minima _ _ _ Hd Hn) as (ks & Hk & Heq & _). rewrite <- Heq.
  rewrite (minimal_answer_mins _ _ Ha), <- (map_map (fun m : mask => len m) Some) in Hk. apply map_Some_inj in Hk.
  unfold total_groups at 2. rewrite Hk. reflexivity.
Qed.
