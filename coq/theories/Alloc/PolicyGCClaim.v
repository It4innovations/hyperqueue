(** C16 group count - one claim with the groups chosen by the solver (claim_resources_with_group_mask):
    - the groups claimed are among the groups selected (for EVERY selection, whatever objective produced it);
    - hence min_groups(pool before) <= groups used <= groups selected;
    - for a selection with the minimum number of groups: the groups claimed are EXACTLY the groups selected. *)
From Coq Require Import Permutation.
From HQ Require Import Base.Prelude Gen.Consts Alloc.Model Alloc.Spec Alloc.Lemmas Alloc.Group Alloc.Pool Alloc.Inv Alloc.Theorems Alloc.Mirror Alloc.MirrorSystem Alloc.Objective Alloc.CompleteTight
  Alloc.PolicyBase Alloc.PolicyFrac Alloc.PolicyGCBase.
Require Import ZifyBool.
Open Scope N_scope.


(** claimed is a subset of selected: for EVERY selection (no assumption on feasibility, objective, weights) *)
Theorem claimed_subset_selected p rid rq mask wit p' ra :
  claim_with_group_mask p rid rq mask wit = Ok (p', ra) ->
  forall g, In g (used (ra_indices ra)) -> In g mask.
Proof.
  intros Hc.
  assert (HF : Forall (in_selP (Some mask)) (ra_indices ra)).
  { destruct (claim_with_group_mask_inv _ _ _ _ _ _ _ Hc) as (full & gs & pol & a & gs' & out & -> & -> & -> & -> & Hl).
    destruct pol; cbv iota in Hl; try contradiction;
      apply (okP_sel _ gs);
      first [eapply claim_scatter_ok; eassumption | eapply claim_compact_ok; eassumption]. }
  intros g Hg. apply in_used in Hg. destruct Hg as (ix & Hix & <-).
  rewrite Forall_forall in HF. specialize (HF _ Hix). unfold in_selP in HF. cbn [in_sel] in HF.
  apply existsb_exists in HF. destruct HF as (y & Hy & E). apply N.eqb_eq in E. subst. auto.
Qed.

Theorem claimed_between full gs rid pol a mask wit p' ra :
  claim_with_group_mask (PGroups full gs) rid (Req pol a) mask wit = Ok (p', ra) ->
  claim_ok (PGroups full gs) p' rid (Req pol a) ra = true ->
  exists k, min_groups (per_of gs) (fst (split a)) (snd (split a)) = Some k
            /\ k <= groups_used ra /\ groups_used ra <= len mask.
Proof.
  intros Hc Hok. destruct (accepted_ge_min _ _ _ _ _ _ _ Hok) as (_ & k & Hk & Hle).
  exists k. split; auto. split; auto.
  rewrite groups_used_eq. unfold len.
  pose proof (NoDup_incl_length (nodup_dedup (map ai_group (ra_indices ra))) (claimed_subset_selected _ _ _ _ _ _ _ Hc)) as H.
  fold (used (ra_indices ra)) in H. lia.
Qed.

Theorem claimed_eq_selected full gs rid pol a mask wit p' ra :
  claim_with_group_mask (PGroups full gs) rid (Req pol a) mask wit = Ok (p', ra) ->
  claim_ok (PGroups full gs) p' rid (Req pol a) ra = true ->
  min_groups (per_of gs) (fst (split a)) (snd (split a)) = Some (len mask) ->
  groups_used ra = len mask
  /\ (NoDup mask -> forall g, In g mask <-> In g (used (ra_indices ra))).
Proof.
  intros Hc Hok Hmin. destruct (claimed_between _ _ _ _ _ _ _ _ _ Hc Hok) as (k & Hk & H1 & H2).
  rewrite Hmin in Hk. inversion Hk; subst k. split; [lia|].
  intros Hnd g. split; [|apply (claimed_subset_selected _ _ _ _ _ _ _ Hc)].
  apply NoDup_length_incl; [apply nodup_dedup | | exact (claimed_subset_selected _ _ _ _ _ _ _ Hc)].
  rewrite groups_used_eq in H1. unfold len in H1. fold (used (ra_indices ra)). lia.
Qed.

(** the gate is transparent: on a well-formed pool the hypothesis [claim_ok] can be dropped *)
Corollary claimed_eq_selected_wf full gs rid pol a mask wit p' ra :
  gs_wf gs ->
  claim_with_group_mask (PGroups full gs) rid (Req pol a) mask wit = Ok (p', ra) ->
  min_groups (per_of gs) (fst (split a)) (snd (split a)) = Some (len mask) ->
  groups_used ra = len mask.
Proof.
  intros Hwf Hc Hmin.
  assert (Hok : claim_ok (PGroups full gs) p' rid (Req pol a) ra = true) by (eapply claim_complete_coupled; eauto).
  apply (claimed_eq_selected _ _ _ _ _ _ _ _ _ Hc Hok Hmin).
Qed.

(** non-vacuity: tight 4.25 over the minimal selection [0; 1] of the groups [2 free; 3 free + index 7 with 0.6]:
    both groups are claimed; over the non-minimal selection [0; 1; 2] (group 2: 5 free) only group 2 is claimed *)
Example claimed_eq_selected_example :
  let gs := [mkGroup [1; 0] []; mkGroup [6; 5; 4] [(7, 6000)]] in
  let p := PGroups (mk_amount 6 0) gs in
  exists p' ra,
    claim_with_group_mask p 0 (Req Tight 42500) [0; 1] (Some 7) = Ok (p', ra)
    /\ claim_ok p p' 0 (Req Tight 42500) ra = true
    /\ min_groups (per_of gs) (fst (split 42500)) (snd (split 42500)) = Some (len [0; 1])
    /\ groups_used ra = 2.
Proof. eexists _, _. split; [vm_compute; reflexivity|]. vm_compute. repeat split. Qed.

Example claimed_subset_strict_example :
  let gs := [mkGroup [1; 0] []; mkGroup [6; 5; 4] [(7, 6000)]; mkGroup [12; 11; 10; 9; 8] []] in
  let p := PGroups (mk_amount 11 0) gs in
  exists p' ra,
    claim_with_group_mask p 0 (Req Tight 42500) [0; 1; 2] None = Ok (p', ra)
    /\ groups_used ra = 1 /\ min_groups (per_of gs) (fst (split 42500)) (snd (split 42500)) = Some 1.
Proof. eexists _, _. split; [vm_compute; reflexivity|]. vm_compute. repeat split. Qed.

Print Assumptions claimed_subset_selected.
Print Assumptions claimed_between.
Print Assumptions claimed_eq_selected.
