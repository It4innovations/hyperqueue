(** The admission summary (ConciseFreeResources) read off the pools: its fraction maps have unique keys in every
    reachable state, and amount_max_alloc compares an amount exactly as the reference [fits_amount] does on the pool. *)
From Coq Require Import Permutation.
From HQ Require Import Base.Prelude Gen.Consts Alloc.Model Alloc.Spec Alloc.Lemmas Alloc.Group Alloc.Pool Alloc.Inv Alloc.Claims Alloc.Mirror Alloc.Theorems Alloc.MirrorSystem.
Require Import ZifyBool.
Open Scope N_scope.

Definition cs_nodup (c : cstate) : Prop := Forall (fun cg => NoDup (keys (c_fr cg))) c.
Definition free_nodup (free : list cstate) : Prop := Forall cs_nodup free.

Lemma cs_nodup_set_at c gi cg : cs_nodup c -> NoDup (keys (c_fr cg)) -> cs_nodup (set_at c gi cg).
Proof. intros. apply Forall_set_at; auto. Qed.

Lemma get_at_forall {A} (P : A -> Prop) l i x : Forall P l -> get_at l i = Ok x -> P x.
Proof. intros H E. apply get_at_ok in E. destruct E as [_ E]. eapply Forall_nth; eauto. Qed.

Lemma remove_fractions_nodup s gi idx fr s' : cs_nodup s -> remove_fractions s gi idx fr = Ok s' -> cs_nodup s'.
Proof.
  unfold remove_fractions. intros Hn H. destruct (get_at s gi) as [g| |] eqn:E; simpl in H; try discriminate.
  pose proof (get_at_forall _ _ _ _ Hn E) as Hg.
  destruct (fget0 (c_fr g) idx <? fr).
  - destruct (c_units g =? 0); try discriminate. inversion H; subst. apply cs_nodup_set_at; auto. simpl. apply nodup_keys_fset; auto.
  - inversion H; subst. apply cs_nodup_set_at; auto. simpl. apply nodup_keys_fset; auto.
Qed.

Lemma add_fractions_nodup s gi idx fr s' : cs_nodup s -> add_fractions s gi idx fr = Ok s' -> cs_nodup s'.
Proof.
  unfold add_fractions. intros Hn H. destruct (get_at s gi) as [g| |] eqn:E; simpl in H; try discriminate.
  pose proof (get_at_forall _ _ _ _ Hn E) as Hg.
  destruct (FPU <=? fget0 (c_fr g) idx + fr).
  - destruct (FPU <=? fget0 (c_fr g) idx + fr - FPU); try discriminate. inversion H; subst. apply cs_nodup_set_at; auto. simpl. apply nodup_keys_fset; auto.
  - inversion H; subst. apply cs_nodup_set_at; auto. simpl. apply nodup_keys_fset; auto.
Qed.

Lemma fr_loop_single_nodup f (Hf : forall s gi idx fr s', cs_nodup s -> f s gi idx fr = Ok s' -> cs_nodup s') l :
  forall s s', cs_nodup s -> fr_loop_single f s l = Ok s' -> cs_nodup s'.
Proof.
  induction l as [|ix l IH]; intros s s' Hn H; simpl in H.
  - inversion H; subst; auto.
  - destruct (ai_frac ix =? 0); [inversion H; subst; auto|].
    destruct (f s 0 (ai_index ix) (ai_frac ix)) as [s1| |] eqn:E; simpl in H; try discriminate. eauto.
Qed.

Lemma remove_loop_nodup l : forall s s', cs_nodup s -> remove_loop_groups s l = Ok s' -> cs_nodup s'.
Proof.
  induction l as [|ix l IH]; intros s s' Hn H; simpl in H.
  - inversion H; subst; auto.
  - destruct (ai_frac ix =? 0).
    + destruct (get_at s (ai_group ix)) as [g| |] eqn:E; simpl in H; try discriminate.
      destruct (c_units g =? 0); try discriminate.
      eapply IH; [|eauto]. apply cs_nodup_set_at; auto. simpl. eapply (get_at_forall _ _ _ _ Hn E).
    + destruct (remove_fractions s (ai_group ix) (ai_index ix) (ai_frac ix)) as [s1| |] eqn:E; simpl in H; try discriminate.
      eapply IH; [|eauto]. eapply remove_fractions_nodup; eauto.
Qed.

Lemma add_loop_nodup l : forall s s', cs_nodup s -> add_loop_groups s l = Ok s' -> cs_nodup s'.
Proof.
  induction l as [|ix l IH]; intros s s' Hn H; simpl in H.
  - inversion H; subst; auto.
  - destruct (ai_frac ix =? 0).
    + destruct (get_at s (ai_group ix)) as [g| |] eqn:E; simpl in H; try discriminate.
      eapply IH; [|eauto]. apply cs_nodup_set_at; auto. simpl. eapply (get_at_forall _ _ _ _ Hn E).
    + destruct (add_fractions s (ai_group ix) (ai_index ix) (ai_frac ix)) as [s1| |] eqn:E; simpl in H; try discriminate.
      eapply IH; [|eauto]. eapply add_fractions_nodup; eauto.
Qed.

Lemma cs_remove_nodup s ra s' : cs_nodup s -> cs_remove s ra = Ok s' -> cs_nodup s'.
Proof.
  unfold cs_remove. intros Hn H. destruct s as [|g [|g2 s2]]; try (eapply remove_loop_nodup; eauto; fail).
  destruct (split (ra_amount ra)) as [units fr]. destruct (c_units g <? units); try discriminate.
  assert (Hn1 : cs_nodup [mkCgroup (c_units g - units) (c_fr g)]) by (inversion Hn; subst; constructor; auto).
  destruct (0 <? fr); [|inversion H; subst; auto].
  destruct (ra_indices ra).
  - eapply remove_fractions_nodup; eauto.
  - eapply (fr_loop_single_nodup remove_fractions remove_fractions_nodup); eauto.
Qed.

Lemma cs_add_nodup s ra s' : cs_nodup s -> cs_add s ra = Ok s' -> cs_nodup s'.
Proof.
  unfold cs_add. intros Hn H. destruct s as [|g [|g2 s2]]; try (eapply add_loop_nodup; eauto; fail).
  destruct (split (ra_amount ra)) as [units fr].
  assert (Hn1 : cs_nodup [mkCgroup (c_units g + units) (c_fr g)]) by (inversion Hn; subst; constructor; auto).
  destruct (0 <? fr); [|inversion H; subst; auto].
  destruct (ra_indices ra).
  - eapply add_fractions_nodup; eauto.
  - eapply (fr_loop_single_nodup add_fractions add_fractions_nodup); eauto.
Qed.

Lemma cf_apply_nodup f (Hf : forall s ra s', cs_nodup s -> f s ra = Ok s' -> cs_nodup s') al :
  forall free free', free_nodup free -> cf_apply f free al = Ok free' -> free_nodup free'.
Proof.
  induction al as [|ra al IH]; intros free free' Hn H; simpl in H.
  - inversion H; subst; auto.
  - destruct (get_at free (ra_res ra)) as [s| |] eqn:E; simpl in H; try discriminate.
    destruct (f s ra) as [s1| |] eqn:E1; simpl in H; try discriminate.
    eapply IH; [|eauto]. apply Forall_set_at; auto. eapply Hf; eauto. eapply (get_at_forall _ _ _ _ Hn E).
Qed.

Lemma step_nodup s o s' out : free_nodup (a_free (s_alloc s)) -> step s o = Ok (s', out) -> free_nodup (a_free (s_alloc s')).
Proof.
  intros Hn Hs.
  destruct (step_inv _ _ _ _ Hs) as [(? & ? & ? & ? & _ & -> & _)|[(? & ? & ? & ? & al & free & _ & _ & _ & _ & Ef & ->)|(? & al & free & ? & _ & _ & _ & Ea & _ & ->)]];
    cbn [s_alloc a_free].
  - exact Hn.
  - eapply (cf_apply_nodup cs_remove cs_remove_nodup); eauto.
  - eapply (cf_apply_nodup cs_add cs_add_nodup); eauto.
Qed.

Lemma concise_state_nodup p : fresh p -> cs_nodup (concise_state p).
Proof.
  destruct p; simpl; intros Hf.
  - constructor.
  - inversion Hf as [|? ? [Hfr _] _]; subst. constructor; [simpl; rewrite Hfr; constructor | constructor].
  - induction Hf as [|g gs [Hfr _] _ IH]; simpl; constructor; auto. simpl. rewrite Hfr. constructor.
  - constructor; [|constructor]. simpl. destruct (0 <? free mod FPU); simpl; [constructor; [intros []|constructor] | constructor].
Qed.

Lemma reachable_nodup d s0 ops s : init d = Ok s0 -> run s0 ops = Ok s -> free_nodup (a_free (s_alloc s)).
Proof.
  intros Hi Hr.
  assert (H0 : free_nodup (a_free (s_alloc s0))).
  { pose proof (init_fresh _ _ Hi) as Hfr. destruct (init_inv _ _ Hi) as (pools & ws & -> & _). simpl in *.
    unfold free_nodup. apply Forall_map. eapply Forall_impl; [|exact Hfr]. apply concise_state_nodup. }
  clear Hi. revert s0 s H0 Hr. induction ops as [|o ops IH]; intros s0 s H0 Hr; simpl in Hr.
  - inversion Hr; subst; auto.
  - destruct (step s0 o) as [[s1 out]| |] eqn:Es; simpl in Hr; try discriminate.
    eapply IH; [|eauto]. eapply step_nodup; eauto.
Qed.

Lemma in_keys_fget m k v : NoDup (keys m) -> In (k, v) m -> fget m k = Some v.
Proof.
  induction m as [|[k' v'] m IH]; simpl; intros Hn Hin; [tauto|].
  inversion Hn as [|? ? Hni Hn']; subst. destruct Hin as [E|Hin].
  - inversion E; subst. rewrite N.eqb_refl. auto.
  - destruct (N.eqb_spec k' k).
    + subst. exfalso. apply Hni. change k with (fst (k, v)). apply in_map. auto.
    + auto.
Qed.

Lemma fmax_le m B : (forall k v, In (k, v) m -> v <= B) -> fmax m <= B.
Proof.
  induction m as [|[k v] m IH]; simpl; intros H; [lia|].
  assert (v <= B) by (apply (H k); auto). assert (fmax m <= B) by (apply IH; intros; eapply H; eauto). lia.
Qed.

Lemma fmax_ext a b : NoDup (keys a) -> NoDup (keys b) -> (forall i, fget0 a i = fget0 b i) -> fmax a = fmax b.
Proof.
  assert (Hle : forall a b, NoDup (keys a) -> (forall i, fget0 a i = fget0 b i) -> fmax a <= fmax b).
  { intros x y Hn He. apply fmax_le. intros k v Hin. pose proof (in_keys_fget _ _ _ Hn Hin) as Hg.
    specialize (He k). unfold fget0 in He. rewrite Hg in He.
    destruct (fget y k) eqn:E; [subst; eapply fmax_ge; eauto | lia]. }
  intros Ha Hb He. apply N.le_antisymm; [apply Hle; auto | apply Hle; auto; intros; symmetry; auto].
Qed.

Lemma fmax_single m : NoDup (keys m) -> (forall i, i <> 0 -> fget0 m i = 0) -> fmax m = fget0 m 0.
Proof.
  intros Hn Ho. apply N.le_antisymm.
  - apply fmax_le. intros k v Hin. pose proof (in_keys_fget _ _ _ Hn Hin) as Hg.
    destruct (N.eq_dec k 0); [subst; unfold fget0; rewrite Hg; lia|].
    specialize (Ho k n). unfold fget0 in Ho. rewrite Hg in Ho. lia.
  - unfold fget0. destruct (fget m 0) eqn:E; [eapply fmax_ge; eauto | lia].
Qed.

Lemma mask_sum_seq pre per coef :
  mask_sum (pre ++ per) (seqN (len pre) (length per)) coef = sumN (map coef per).
Proof.
  revert pre; induction per as [|uf per IH]; intros pre; [reflexivity|].
  cbn [length seqN map]. rewrite mask_sum_cons. replace (nat_of (len pre)) with (length pre) by (unfold nat_of, len; lia).
  rewrite nth_error_app2 by lia. rewrite Nat.sub_diag. cbn [nth_error]. rewrite sumN_cons. f_equal.
  specialize (IH (pre ++ [uf])). rewrite <- app_assoc in IH. simpl in IH.
  rewrite len_app in IH. replace (len pre + len [uf]) with (len pre + 1) in IH by (unfold len; simpl; lia). auto.
Qed.

Lemma mask_sum_full per coef : mask_sum per (full_mask per) coef = sumN (map coef per).
Proof. apply (mask_sum_seq [] per coef). Qed.

Lemma existsb_seq (pre per : list (N * N)) (P : N * N -> bool) :
  existsb (fun gi => match nth_error (pre ++ per) (nat_of gi) with Some uf => P uf | None => false end) (seqN (len pre) (length per))
  = existsb P per.
Proof.
  revert pre; induction per as [|uf per IH]; intros pre; [reflexivity|].
  cbn [length seqN existsb]. replace (nat_of (len pre)) with (length pre) by (unfold nat_of, len; lia).
  rewrite nth_error_app2 by lia. rewrite Nat.sub_diag. cbn [nth_error]. f_equal.
  specialize (IH (pre ++ [uf])). rewrite <- app_assoc in IH. simpl in IH.
  rewrite len_app in IH. replace (len pre + len [uf]) with (len pre + 1) in IH by (unfold len; simpl; lia). auto.
Qed.

Definition maxsnd (per : list (N * N)) : N := fold_right (fun uf n => N.max (snd uf) n) 0 per.

Lemma existsb_maxsnd per f : 0 < f -> existsb (fun uf => f <=? snd uf) per = (f <=? maxsnd per).
Proof.
  intros Hf. induction per as [|uf per IH]; simpl.
  - destruct (N.leb_spec f 0); auto; lia.
  - rewrite IH. destruct (N.leb_spec f (snd uf)), (N.leb_spec f (maxsnd per)), (N.leb_spec f (N.max (snd uf) (maxsnd per))); simpl; auto; lia.
Qed.

Lemma sufficient_full per u f :
  sufficient per u f (full_mask per) =
  (u <=? sumN (map fst per)) && ((f =? 0) || (u + 1 <=? sumN (map fst per)) || (f <=? maxsnd per)).
Proof.
  unfold sufficient. rewrite mask_sum_full.
  pose proof (existsb_seq [] per (fun uf => f <=? snd uf)) as E. cbn [app] in E.
  change (len (@nil (N * N))) with 0 in E. unfold full_mask. rewrite E.
  destruct (N.eqb_spec f 0); simpl; auto.
  rewrite existsb_maxsnd by lia. auto.
Qed.

Lemma group_like_max gs c :
  gs_mirror gs c -> gs_wf gs -> cs_nodup c ->
  cs_units_sum c = sumN (map fst (map (fun g => (len (g_idx g), fmax (g_fr g))) gs))
  /\ cs_max_fraction c = maxsnd (map (fun g => (len (g_idx g), fmax (g_fr g))) gs)
  /\ maxsnd (map (fun g => (len (g_idx g), fmax (g_fr g))) gs) < FPU.
Proof.
  induction 1 as [|g cg gs c [Hu Hf] _ IH]; intros Hwf Hn; simpl.
  - split; [reflexivity|]. split; [reflexivity|]. apply FPU_pos.
  - inversion Hwf as [|? ? (Hnd & Hndk & Hsf & Hlt) Hwf']; subst. inversion Hn as [|? ? Hnk Hn']; subst.
    destruct (IH Hwf' Hn') as (A & B & C). cbn [map]. rewrite sumN_cons. simpl fst. simpl snd.
    assert (Hfm : fmax (c_fr cg) = fmax (g_fr g)) by (apply fmax_ext; auto).
    assert (Hb : fmax (g_fr g) < FPU) by (apply fmax_bound; auto; apply FPU_pos).
    unfold cs_units_sum, cs_max_fraction in *. simpl. rewrite A, B, Hu, Hfm. repeat split; auto. lia.
Qed.

(** ConciseResourceState::amount_max_alloc of an index / group resource, read off the pool *)
Lemma groups_max_alloc gs c :
  gs_mirror gs c -> gs_wf gs -> cs_nodup c ->
  amount_max_alloc c = Ok (mk_amount (sumN (map (fun g => len (g_idx g)) gs)) (maxsnd (map (fun g => (len (g_idx g), fmax (g_fr g))) gs)))
  /\ maxsnd (map (fun g => (len (g_idx g), fmax (g_fr g))) gs) < FPU.
Proof.
  intros Hm Hw Hn. destruct (group_like_max _ _ Hm Hw Hn) as (A & B & C). split; [|exact C].
  unfold amount_max_alloc. rewrite A, B, map_map. cbn [fst].
  destruct (N.ltb_spec (maxsnd (map (fun g => (len (g_idx g), fmax (g_fr g))) gs)) FPU); [reflexivity|lia].
Qed.

Lemma adm_arith U F a :
  F < FPU ->
  (a <=? mk_amount U F) =
  (let '(u, f) := split a in (u <=? U) && ((f =? 0) || (u + 1 <=? U) || (f <=? F))).
Proof.
  intros HF. unfold mk_amount. destruct (split_recompose a) as [Hrec Hm]. destruct (split a) as [u f]. cbn [fst snd] in Hrec, Hm.
  destruct (N.leb_spec a (U * FPU + F)); destruct (N.leb_spec u U); destruct (N.eqb_spec f 0);
    destruct (N.leb_spec (u + 1) U); destruct (N.leb_spec f F); simpl; auto;
    exfalso; unfold FPU, FRACTIONS_PER_UNIT in *; lia.
Qed.

Definition fits_amount (pl : pool) (a : N) : bool :=
  match pl with
  | PEmpty => a =? 0
  | PSum _ free => a <=? free
  | _ => let '(u, f) := split a in sufficient (pool_per_group pl) u f (full_mask (pool_per_group pl))
  end.

Lemma entry_adm p0 pl c H taken a :
  PoolInv p0 pl c H taken -> cs_nodup c ->
  exists m, amount_max_alloc c = Ok m /\ (a <=? m) = fits_amount pl a.
Proof.
  intros (K & F & C) Hn.
  assert (Hgroups : forall gs, gs_mirror gs c -> gs_wf gs ->
            exists m, amount_max_alloc c = Ok m
              /\ (a <=? m) = (let '(u, f) := split a in
                              sufficient (map (fun g => (len (g_idx g), fmax (g_fr g))) gs) u f (full_mask (map (fun g => (len (g_idx g), fmax (g_fr g))) gs)))).
  { intros gs Hm Hw. destruct (groups_max_alloc _ _ Hm Hw Hn) as [A B]. eexists; split; [exact A|].
    rewrite adm_arith by exact B. destruct (split a) as [u f]. rewrite sufficient_full, map_map. reflexivity. }
  destruct pl as [|fl g|fl gs|fl free].
  - destruct C as (_ & Hm & _). inversion Hm; subst. exists 0. split; [reflexivity|]. simpl.
    destruct (N.leb_spec a 0), (N.eqb_spec a 0); auto; lia.
  - destruct C as (_ & Hm & Hw & _). apply (Hgroups [g]); assumption.
  - destruct C as (_ & Hm & Hw & _). apply (Hgroups gs); assumption.
  - destruct C as (_ & (cg & -> & Hs & Hl & Ho) & _). pose proof (Forall_inv Hn) as Hnk. cbv beta in Hnk.
    unfold amount_max_alloc, cs_max_fraction, cs_units_sum. simpl.
    rewrite (fmax_single _ Hnk Ho). rewrite N.max_0_r.
    destruct (N.ltb_spec (fget0 (c_fr cg) 0) FPU); [|lia].
    eexists; split; [reflexivity|]. unfold mk_amount. rewrite N.add_0_r, Hs. auto.
Qed.

Definition plain_entry (e : entry) : bool :=
  match e_req e with Req Compact _ | Req Tight _ | Req Scatter _ => true | _ => false end.
