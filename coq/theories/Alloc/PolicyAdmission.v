(** C16 - admission = reference for EVERY request kind the solver is not consulted for (compact, tight, scatter
    with an amount AND `all`), and the part of the agreement that holds for all requests, strict ones included:
    a request is only admitted / granted if the pools contain enough for every entry; is_enabled and try_allocate
    agree. *)
From Coq Require Import Permutation.
From HQ Require Import Base.Prelude Gen.Consts Alloc.Model Alloc.Spec Alloc.Lemmas Alloc.Group Alloc.Pool Alloc.Inv Alloc.Mirror Alloc.Theorems Alloc.MirrorSystem Alloc.Objective Alloc.Admission Alloc.AllFree Alloc.Examples.
Require Import ZifyBool.
Open Scope N_scope.

(** reference for an `all` entry: everything of the resource is free *)
Definition fits_all (pl : pool) : bool :=
  match pl with
  | PEmpty => true
  | PSum full free => free =? full
  | _ => mask_sum (pool_per_group pl) (full_mask (pool_per_group pl)) fst * FPU =? pool_full_size pl
  end.

Definition fits_req (pl : pool) (r : areq) : bool :=
  match r with Req _ a => fits_amount pl a | ReqAll => fits_all pl end.

Lemma entry_fits_req pools e pl :
  nth_error pools (nat_of (e_res e)) = Some pl -> entry_fits pools e = fits_req pl (e_req e).
Proof. intros Hn. unfold entry_fits, fits_req. rewrite Hn. destruct (e_req e) as [pol a|]; destruct pl; reflexivity. Qed.

Lemma fmax_zero g u h hf : GI u g h hf -> incl u (g_idx g) -> fmax (g_fr g) = 0.
Proof.
  intros ((Hnd & Hndk & Hsf & Hlt) & _ & Hout & _) Hincl.
  apply N.le_antisymm; [|lia]. apply fmax_le. intros k v Hin. exfalso.
  pose proof (in_keys_fget _ _ _ Hndk Hin) as Hg.
  destruct (in_dec N.eq_dec k u) as [Hu|Hu].
  - rewrite (Hsf k (Hincl k Hu)) in Hg. discriminate.
  - destruct (Hout k Hu) as (_ & Hn & _). congruence.
Qed.

Lemma all_free_no_fractions us gs h hf :
  GsI us gs h hf ->
  sumN (map (fun g => len (g_idx g)) gs) = sumN (map (fun u : list N => len u) us) ->
  maxsnd (map (fun g => (len (g_idx g), fmax (g_fr g))) gs) = 0.
Proof.
  intros HG Hsum.
  assert (Hall : forall n gn, nth_error gs n = Some gn -> fmax (g_fr gn) = 0).
  { intros n gn En. pose proof HG as [Lg HG'].
    destruct (nth_error us n) as [un|] eqn:Eu; [|apply nth_error_None in Eu; apply nth_error_some_lt in En; lia].
    apply (fmax_zero gn un (h (N.of_nat n)) (hf (N.of_nat n))); [|exact (stacks_full _ _ _ _ HG Hsum _ _ _ Eu En)].
    specialize (HG' (N.of_nat n) un gn). rewrite nat_of_of_nat in HG'. apply HG'; auto.
    apply nth_error_some_lt in En. unfold len. lia. }
  clear - Hall. induction gs as [|g gs IH]; [reflexivity|]. cbn [map maxsnd fold_right snd].
  rewrite (Hall O g eq_refl). fold (maxsnd (map (fun g0 => (len (g_idx g0), fmax (g_fr g0))) gs)).
  rewrite IH; [reflexivity|]. intros n gn Hn. apply (Hall (S n)). auto.
Qed.

Lemma entry_adm_all p0 pl c H taken :
  PoolInv p0 pl c H taken -> cs_nodup c -> sized p0 ->
  exists m, amount_max_alloc c = Ok m /\ (m =? pool_full_size pl) = fits_all pl.
Proof.
  intros HI Hn Hsz. assert (K : same_kind p0 pl = true) by apply HI. assert (F : pool_full_size pl = pool_full_size p0) by apply HI.
  destruct (pool_is_sum pl) eqn:Es.
  - destruct pl as [| | |fl free]; try discriminate Es. destruct HI as (_ & _ & _ & (cg & -> & Hs & Hl & Ho) & _).
    pose proof (Forall_inv Hn) as Hnk. cbv beta in Hnk.
    unfold amount_max_alloc, cs_max_fraction, cs_units_sum. cbn [fold_right c_units c_fr].
    rewrite (fmax_single _ Hnk Ho). rewrite N.max_0_r.
    destruct (N.ltb_spec (fget0 (c_fr cg) 0) FPU) as [_|]; [|lia].
    eexists; split; [reflexivity|]. unfold mk_amount. rewrite N.add_0_r, Hs. reflexivity.
  - destruct (PoolInv_groups _ _ _ _ _ HI Es) as (HG & Hm & Hw).
    destruct (groups_max_alloc _ _ Hm Hw Hn) as [A B]. eexists; split; [exact A|].
    set (U := sumN (map (fun g1 => len (g_idx g1)) (pool_groups pl))) in *.
    set (Fm := maxsnd (map (fun g1 => (len (g_idx g1), fmax (g_fr g1))) (pool_groups pl))) in *.
    assert (Hfa : fits_all pl = (U * FPU =? pool_full_size pl))
      by (unfold U; destruct pl; try discriminate Es; unfold fits_all, pool_per_group; rewrite ?mask_sum_full, ?map_map; reflexivity).
    assert (Hs0 : pool_full_size pl = usize p0 * FPU)
      by (rewrite F; destruct p0, pl; try discriminate K; try discriminate Es; exact Hsz).
    assert (Hz : U = usize p0 -> Fm = 0).
    { intros E. apply (all_free_no_fractions _ _ _ _ HG). unfold pool_us. rewrite map_map. exact E. }
    rewrite Hfa, Hs0. unfold mk_amount.
    destruct (N.eqb_spec (U * FPU + Fm) (usize p0 * FPU)) as [E1|E1], (N.eqb_spec (U * FPU) (usize p0 * FPU)) as [E2|E2]; auto; exfalso.
    + unfold FPU, FRACTIONS_PER_UNIT in *. lia.
    + assert (HU : U = usize p0) by (unfold FPU, FRACTIONS_PER_UNIT in *; lia). rewrite (Hz HU) in E1. lia.
Qed.

(** the per-entry loop of has_resources_for_request computes the reference, for EVERY kind of entry *)
Lemma hr_entries_ref pools0 pools free Hf Tf entries : forall coupling,
  PoolsInv pools0 pools free Hf Tf -> free_nodup free -> Forall sized pools0 ->
  exists coupling', hr_entries pools free entries coupling = Ok (forallb (entry_fits pools) entries, coupling')
                    /\ (forall e, In e coupling' -> In e coupling \/ In e entries).
Proof.
  induction entries as [|e rest IH]; intros coupling HP Hn Hsz; cbn [hr_entries forallb].
  - exists coupling. split; auto.
  - destruct (N.leb_spec (len pools) (e_res e)) as [Hout|Hin].
    + assert (Hnone : nth_error pools (nat_of (e_res e)) = None) by (apply nth_error_None; unfold len, nat_of in *; lia).
      unfold entry_fits at 1. rewrite Hnone. cbn [andb]. exists coupling. split; auto.
    + destruct (get_at_lt pools (e_res e) Hin) as [pl Hpl]. rewrite Hpl. cbn [bind].
      pose proof (get_at_nth _ _ _ Hpl) as Hnp.
      destruct (PoolsInv_at _ _ _ _ _ _ _ HP Hnp) as (p0 & c & E0 & Hc & HI). rewrite Hc. cbn [bind].
      assert (Hcn : cs_nodup c) by (eapply get_at_forall; eauto).
      assert (Hs0 : sized p0) by (eapply Forall_nth; eauto).
      rewrite (entry_fits_req pools e pl Hnp).
      assert (Hok : exists m, amount_max_alloc c = Ok m
                /\ match e_req e with Req _ a => a <=? m | ReqAll => m =? pool_full_size pl end = fits_req pl (e_req e)).
      { destruct (e_req e) as [pol a|].
        - destruct (entry_adm _ _ _ _ _ a HI Hcn) as (m & Hm & Hle). exists m. auto.
        - destruct (entry_adm_all _ _ _ _ _ HI Hcn Hs0) as (m & Hm & Hle). exists m. auto. }
      destruct Hok as (m & Hm & Hle). rewrite Hm. cbn [bind]. rewrite Hle.
      destruct (fits_req pl (e_req e)); cbn [andb].
      * destruct (IH (if is_groups pl && is_relevant_for_coupling (e_req e) then coupling ++ [e] else coupling)) as (cp & A & B); auto.
        exists cp. split; [exact A|]. intros x Hx. destruct (B x Hx) as [Hy|Hy]; [|right; right; exact Hy].
        destruct (is_groups pl && is_relevant_for_coupling (e_req e)); [|left; exact Hy].
        apply in_app_or in Hy. destruct Hy as [Hy|[Hy|[]]]; [left; exact Hy | subst; right; left; reflexivity].
      * destruct (is_groups pl && is_relevant_for_coupling (e_req e)); eexists; (split; [reflexivity|]); intros x Hx; [|left; exact Hx].
        apply in_app_or in Hx. destruct Hx as [Hx|[Hx|[]]]; [left; exact Hx | subst; right; left; reflexivity].
Qed.

Definition unforced (rq : request) : bool := forallb (fun e => negb (is_forced (e_req e))) rq.

Section Reachable.
  Variables (d : desc) (s0 : sys) (ops : list op) (s : sys).
  Hypothesis Hi : init d = Ok s0.
  Hypothesis Hv : Forall valid_op ops.
  Hypothesis Hr : run s0 ops = Ok s.

  Lemma hr_entries_reachable rq :
    exists cp, hr_entries (a_pools (s_alloc s)) (a_free (s_alloc s)) rq [] = Ok (request_fits (a_pools (s_alloc s)) rq, cp)
               /\ (forall e, In e cp -> In e rq).
  Proof.
    pose proof (reachable_full _ _ _ _ Hi Hv Hr) as HF.
    destruct HF as [HI _]. pose proof (reachable_nodup _ _ _ _ Hi Hr) as Hn. pose proof (init_sized _ _ Hi) as Hsz.
    destruct (hr_entries_ref _ _ _ _ _ rq [] HI Hn Hsz) as (cp & A & B).
    exists cp. split; auto. intros e He. destruct (B e He) as [[]|]; auto.
  Qed.

  (** a request that does not fit is refused - whatever its policies, without consulting the solver *)
  Theorem admission_refuses_unfit rq w :
    request_fits (a_pools (s_alloc s)) rq = false ->
    has_resources (s_alloc s) rq w = Ok (false, a_yard (s_alloc s)).
  Proof.
    intros Hf. destruct (hr_entries_reachable rq) as (cp & A & _). unfold has_resources. rewrite A, Hf. reflexivity.
  Qed.

  (** an admitted request fits - whatever its policies (monitor grant-without-room) *)
  Theorem admission_implies_fits rq w yard :
    has_resources (s_alloc s) rq w = Ok (true, yard) -> request_fits (a_pools (s_alloc s)) rq = true.
  Proof.
    intros Hh. destruct (request_fits (a_pools (s_alloc s)) rq) eqn:Hf; auto.
    rewrite (admission_refuses_unfit rq w Hf) in Hh. discriminate.
  Qed.

  (** no strict entry: admission = reference, `all` included (monitors spurious-refusal, grant-without-room) *)
  Theorem admission_iff_feasible_all rq w :
    unforced rq = true ->
    has_resources (s_alloc s) rq w = Ok (request_fits (a_pools (s_alloc s)) rq, a_yard (s_alloc s)).
  Proof.
    intros Hu. destruct (hr_entries_reachable rq) as (cp & A & B). unfold has_resources. rewrite A. cbn [bind].
    destruct (request_fits (a_pools (s_alloc s)) rq); cbn [negb]; auto.
    assert (Hnf : forallb (fun e => negb (is_forced (e_req e))) cp = true).
    { apply forallb_forall. intros e He. unfold unforced in Hu. rewrite forallb_forall in Hu. auto. }
    rewrite Hnf. reflexivity.
  Qed.
End Reachable.

(** C16_admission_iff_feasible (non-strict policies, amounts): in every reachable state the admission test
    does not panic and is true exactly when the free resources of the POOLS contain enough for every entry
    (enough whole indices, the fractional remainder from one index; enough of a sum resource). *)
Theorem admission_iff_feasible_thm d s0 ops s rq w :
  init d = Ok s0 -> Forall valid_op ops -> run s0 ops = Ok s ->
  forallb plain_entry rq = true ->
  has_resources (s_alloc s) rq w = Ok (request_fits (a_pools (s_alloc s)) rq, a_yard (s_alloc s)).
Proof.
  intros Hi Hv Hr Hpl. apply (admission_iff_feasible_all d s0 ops s Hi Hv Hr). unfold unforced.
  rewrite forallb_forall in *. intros e He. specialize (Hpl e He). unfold plain_entry in Hpl.
  destruct (e_req e) as [[] ?|]; try discriminate Hpl; reflexivity.
Qed.

(** is_enabled and try_allocate run the same admission test: called in the same state with the same witnesses
    they agree - for EVERY allocator state and request *)
Theorem enabled_agrees_with_allocate a rq w a1 b a2 r :
  is_enabled a rq w = Ok (a1, b) -> try_allocate a rq w = Ok (a2, r) ->
  b = match r with Some _ => true | None => false end.
Proof.
  unfold is_enabled, try_allocate. destruct (has_resources a rq w) as [[ok yard]| |]; cbn [bind]; try discriminate.
  intros H1 H2. inversion H1; subst. destruct b; cbn [negb] in H2.
  - destruct (claim_resources _ rq w) as [[pools al]| |]; cbn [bind] in H2; try discriminate.
    destruct (cf_remove (a_free a) al); cbn [bind] in H2; try discriminate. inversion H2; subst. reflexivity.
  - inversion H2; subst. reflexivity.
Qed.

Lemma run_snoc ops : forall s0 s o r, run s0 ops = Ok s -> step s o = Ok r -> run s0 (ops ++ [o]) = Ok (fst r).
Proof.
  induction ops as [|x ops IH]; intros s0 s o r Hr Hs; cbn [run app] in *.
  - inversion Hr; subst. rewrite Hs. reflexivity.
  - destruct (step s0 x) as [r0| |]; cbn [bind] in *; try discriminate. eapply IH; eauto.
Qed.

(** C16 admission for requests without a strict entry, at the level of the system steps:
    in every reachable state
    - try_allocate grants EXACTLY when the pools contain enough for every entry (reference [request_fits];
      for an `all` entry: everything of the resource is free) - no spurious refusal, no grant without room;
    - is_enabled answers the reference;
    - hence an is_enabled followed by a try_allocate of the same request agree, whatever the witnesses. *)
Theorem C16_admission_all : forall d s0 ops s rq w,
  init d = Ok s0 -> Forall valid_op ops -> run s0 ops = Ok s -> unforced rq = true ->
  (forall s' o, step s (OAlloc rq w) = Ok (s', o) ->
                if request_fits (a_pools (s_alloc s)) rq then exists al, o = OutGrant al else o = OutNone)
  /\ (forall s' o, step s (OEnabled rq w) = Ok (s', o) ->
                   o = OutEnabled (request_fits (a_pools (s_alloc s)) rq)
                   /\ a_pools (s_alloc s') = a_pools (s_alloc s))
  /\ (forall s1 b w2 s2 o, step s (OEnabled rq w) = Ok (s1, OutEnabled b) -> step s1 (OAlloc rq w2) = Ok (s2, o) ->
                           if b then exists al, o = OutGrant al else o = OutNone).
Proof.
  intros d s0 ops s rq w Hi Hv Hr Hu.
  pose proof (admission_iff_feasible_all d s0 ops s Hi Hv Hr rq) as Hadm.
  assert (Halloc : forall w' s' o, step s (OAlloc rq w') = Ok (s', o) ->
                     if request_fits (a_pools (s_alloc s)) rq then exists al, o = OutGrant al else o = OutNone).
  { intros w' s' o Hs. cbn [step] in Hs. unfold try_allocate in Hs. rewrite (Hadm w' Hu) in Hs. cbn [bind] in Hs.
    destruct (request_fits (a_pools (s_alloc s)) rq); cbn [negb bind] in Hs.
    - destruct (claim_resources _ rq w') as [[pools al]| |]; cbn [bind] in Hs; try discriminate.
      destruct (cf_remove (a_free (s_alloc s)) al); cbn [bind] in Hs; try discriminate. inversion Hs; subst. eauto.
    - inversion Hs; subst. reflexivity. }
  assert (Hen : forall s' o, step s (OEnabled rq w) = Ok (s', o) ->
                  o = OutEnabled (request_fits (a_pools (s_alloc s)) rq) /\ a_pools (s_alloc s') = a_pools (s_alloc s)).
  { intros s' o Hs. cbn [step] in Hs. unfold is_enabled in Hs. rewrite (Hadm w Hu) in Hs. cbn [bind fst snd] in Hs.
    inversion Hs; subst. split; reflexivity. }
  split; [apply Halloc|]. split; [exact Hen|].
  intros s1 b w2 s2 o H1 H2.
  destruct (Hen _ _ H1) as [Hb Hp]. inversion Hb; subst b.
  assert (Hr1 : run s0 (ops ++ [OEnabled rq w]) = Ok s1) by (apply (run_snoc ops s0 s _ (s1, OutEnabled _) Hr H1)).
  assert (Hv1 : Forall valid_op (ops ++ [OEnabled rq w])) by (apply Forall_app; split; auto; constructor; [exact I|constructor]).
  pose proof (admission_iff_feasible_all d s0 _ s1 Hi Hv1 Hr1 rq w2 Hu) as Hadm1.
  rewrite <- Hp.
  cbn [step] in H2. unfold try_allocate in H2. rewrite Hadm1 in H2. cbn [bind] in H2.
  destruct (request_fits (a_pools (s_alloc s1)) rq); cbn [negb bind] in H2.
  - destruct (claim_resources _ rq w2) as [[pools al]| |]; cbn [bind] in H2; try discriminate.
    destruct (cf_remove (a_free (s_alloc s1)) al); cbn [bind] in H2; try discriminate. inversion H2; subst. eauto.
  - inversion H2; subst. reflexivity.
Qed.

(** for EVERY request, strict entries included: a grant is only made if the pools contain enough for every
    entry (monitor grant-without-room), and a request that does not fit is refused without panic *)
Theorem C16_grant_has_room : forall d s0 ops s rq w s' al,
  init d = Ok s0 -> Forall valid_op ops -> run s0 ops = Ok s ->
  step s (OAlloc rq w) = Ok (s', OutGrant al) -> request_fits (a_pools (s_alloc s)) rq = true.
Proof.
  intros d s0 ops s rq w s' al Hi Hv Hr Hs. cbn [step] in Hs. unfold try_allocate in Hs.
  destruct (has_resources (s_alloc s) rq w) as [[ok yard]| |] eqn:Eh; cbn [bind] in Hs; try discriminate.
  destruct ok; cbn [negb] in Hs; [|inversion Hs].
  eapply admission_implies_fits; eauto.
Qed.

Theorem C16_unfit_refused : forall d s0 ops s rq w,
  init d = Ok s0 -> Forall valid_op ops -> run s0 ops = Ok s ->
  request_fits (a_pools (s_alloc s)) rq = false ->
  exists s', step s (OAlloc rq w) = Ok (s', OutNone) /\ step s (OEnabled rq w) = Ok (s', OutEnabled false).
Proof.
  intros d s0 ops s rq w Hi Hv Hr Hf. cbn [step]. unfold try_allocate, is_enabled.
  rewrite (admission_refuses_unfit d s0 ops s Hi Hv Hr rq w Hf). cbn [bind negb fst snd]. eexists. split; reflexivity.
Qed.

(** non-vacuity: in the reachable state after the first grant of Alloc.Examples (1.5 cpus of group 0 taken) an
    `all` request for the cpus is refused and one for the untouched... sum resource is refused as well (0.5 of it is
    taken); after releasing everything `all` is granted *)
Example admission_all_example :
  exists s0 s1 s2,
    init ex_desc = Ok s0 /\ run s0 (firstn 1 ex_ops) = Ok s1 /\ run s0 ex_ops = Ok s2
    /\ request_fits (a_pools (s_alloc s1)) [mkEntry 0 ReqAll] = false
    /\ request_fits (a_pools (s_alloc s2)) [mkEntry 0 ReqAll; mkEntry 1 ReqAll] = true
    /\ (exists s', step s1 (OAlloc [mkEntry 0 ReqAll] no_wit) = Ok (s', OutNone))
    /\ (exists s' al, step s2 (OAlloc [mkEntry 0 ReqAll; mkEntry 1 ReqAll] no_wit) = Ok (s', OutGrant al)).
Proof.
  eexists. eexists. eexists.
  split; [vm_compute; reflexivity|]. split; [vm_compute; reflexivity|]. split; [vm_compute; reflexivity|].
  split; [vm_compute; reflexivity|]. split; [vm_compute; reflexivity|].
  split; [eexists; vm_compute; reflexivity | eexists; eexists; vm_compute; reflexivity].
Qed.

Print Assumptions C16_admission_all.
Print Assumptions C16_grant_has_room.
Print Assumptions C16_unfit_refused.
Print Assumptions enabled_agrees_with_allocate.
