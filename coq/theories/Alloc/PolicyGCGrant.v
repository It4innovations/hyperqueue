(** C16 group count for WHOLE grants (several coupled entries at once): the monitor group-count
    ([group_count_ok]) as a theorem.
    - For every accepted answer of the solver, with or without coupling weights, whatever its objective: the groups
      claimed for a coupled entry are among the groups the answer selected for it, and
      min_groups(pool before) <= groups used <= groups selected.
    - For answers that select the minimum number of groups per entry: groups used = min_groups of the pool before
      (compact / tight), and for a grant with strict entries on a worker without coupling weights = min_groups of the
      EMPTY worker (compact! / tight!) - the lifting of C16_strict_sound / C16_optimal_is_minimal to whole grants. *)
From Coq Require Import Permutation.
From HQ Require Import Base.Prelude Gen.Consts Alloc.Model Alloc.Spec Alloc.Lemmas Alloc.Group Alloc.Pool Alloc.Inv Alloc.Claims Alloc.Mirror Alloc.Theorems Alloc.MirrorSystem Alloc.Admission Alloc.AllFree Alloc.Objective Alloc.CompleteTight Alloc.Examples
  Alloc.PolicyBase Alloc.PolicyGrant Alloc.PolicyAdmission Alloc.PolicyStrict Alloc.PolicyStrictReach Alloc.PolicyStrictYard
  Alloc.PolicyGCBase Alloc.PolicyGCClaim.
Require Import ZifyBool.
Open Scope N_scope.

Definition served_by (rq0 : request) (good : entry -> ralloc -> Prop) (ra : ralloc) : Prop :=
  exists e, In e rq0 /\ e_res e = ra_res ra /\ good e ra.

Lemma Forall2_combine_in {A B} (R : A -> B -> Prop) l l' x y : Forall2 R l l' -> In (x, y) (combine l l') -> R x y.
Proof. induction 1; cbn [combine]; [intros []|intros [E|Hin]; [inversion E; subst|]; auto]. Qed.

(** ResourceAllocator::claim_resources: a property [good] that every accepted direct claim has, and every accepted
    claim with a group selection satisfying [mask_ok], holds of every resource allocation of a grant *)
Theorem claim_resources_loop (good : entry -> ralloc -> Prop) (mask_ok : entry -> mask -> Prop) a rq w pools' al :
  (forall e wit p p' ra,
     get_at (a_pools a) (e_res e) = Ok p -> is_groups p && is_relevant_for_coupling (e_req e) = false ->
     pool_claim p (e_res e) (e_req e) wit = Ok (p', ra) -> claim_ok p p' (e_res e) (e_req e) ra = true -> good e ra) ->
  (forall e m wit p p' ra,
     get_at (a_pools a) (e_res e) = Ok p -> mask_ok e m ->
     claim_with_group_mask p (e_res e) (e_req e) m wit = Ok (p', ra) -> claim_ok p p' (e_res e) (e_req e) ra = true -> good e ra) ->
  NoDup (map e_res rq) ->
  (forall ms, w_mask w = Some ms -> length ms = length (coupled_entries (a_pools a) rq) ->
              Forall2 mask_ok (coupled_entries (a_pools a) rq) ms) ->
  claim_resources a rq w = Ok (pools', al) ->
  Forall (served_by rq good) al.
Proof.
  intros Hd Hcp Hnd Hmask Hc. destruct (claim_resources_each _ _ _ _ _ Hnd Hc) as (ms & Hsol & Hall).
  eapply Forall_impl; [|exact Hall]. intros ra (e & He & Hres & p & p' & Hg & Hok & Hcl).
  exists e. split; auto. split; auto. destruct Hcl as [[Hnc Hpc]|(m & Hin & Hcm)]; [eapply Hd; eauto|].
  eapply Hcp; eauto.
  destruct Hsol as [[_ ->]|[o Hs]]; [destruct (coupled_entries _ _); destruct Hin|].
  destruct (group_solver_some _ _ _ _ _ _ _ Hs) as (Hw & Hl & _). exact (Forall2_combine_in _ _ _ _ _ (Hmask ms Hw Hl) Hin).
Qed.


(** what holds for the resource allocation [ra] serving the coupled entry [e], relative to the answer [ms] *)
Definition within_selected (before : list pool) (cp : list entry) (ms : list mask) (e : entry) (ra : ralloc) : Prop :=
  is_coupled before e = true ->
  exists m k, In (e, m) (combine cp ms)
    /\ (forall g, In g (used (ra_indices ra)) -> In g m)
    /\ (let '(per, u, f) := ref_row before e in min_groups per u f = Some k)
    /\ k <= groups_used ra /\ groups_used ra <= len m.

Lemma Forall2_mono {A B} (R R' : A -> B -> Prop) l l' : (forall a b, R a b -> R' a b) -> Forall2 R l l' -> Forall2 R' l l'.
Proof. intros H. induction 1; constructor; auto. Qed.

Lemma Forall2_combine {A B} (l : list A) : forall (l' : list B), length l' = length l ->
  Forall2 (fun x y => In (x, y) (combine l l')) l l'.
Proof.
  induction l as [|x l IH]; intros [|y l'] H; cbn [length] in H; try discriminate; constructor.
  - left. reflexivity.
  - eapply Forall2_mono; [|apply IH; lia]. intros a b Hab. right. exact Hab.
Qed.

Theorem grant_claimed_within_selected : forall s rq w s' al,
  NoDup (map e_res rq) ->
  step s (OAlloc rq w) = Ok (s', OutGrant al) ->
  forall ms, (w_mask w = Some ms \/ (coupled_entries (a_pools (s_alloc s)) rq = [] /\ ms = [])) ->
  Forall (fun ra => exists e, In e rq /\ e_res e = ra_res ra
                              /\ within_selected (a_pools (s_alloc s)) (coupled_entries (a_pools (s_alloc s)) rq) ms e ra) al.
Proof.
  intros s rq w s' al Hnd Hs ms Hms. destruct (step_grant_inv _ _ _ _ _ Hs) as (yard & pools & free' & _ & Ec & _). clear Hs.
  set (bp := a_pools (s_alloc s)) in *. set (cp := coupled_entries bp rq) in *.
  refine (claim_resources_loop (within_selected bp cp ms) (fun e m => In (e, m) (combine cp ms)) _ rq w _ _ _ _ Hnd _ Ec); cbn [a_pools]; fold bp.
  - intros e wit p p' ra Hg Hnc _ _ Hcpl. exfalso. unfold is_coupled in Hcpl.
    apply get_at_ok in Hg. destruct Hg as [_ Hn]. rewrite Hn, Hnc in Hcpl. discriminate.
  - intros e m wit p p' ra Hg Hin Hc Hok _.
    destruct (claim_with_group_mask_inv _ _ _ _ _ _ _ Hc) as (full & gs & pol & a & _ & _ & -> & Hreq & _). rewrite Hreq in *.
    destruct (claimed_between _ _ _ _ _ _ _ _ _ Hc Hok) as (k & Hk & H1 & H2).
    exists m, k. split; auto. split; [apply (claimed_subset_selected _ _ _ _ _ _ _ Hc)|].
    apply get_at_ok in Hg. destruct Hg as [_ Hn]. rewrite (ref_row_eq _ _ _ _ _ _ Hn Hreq). auto.
  - intros ms' Hw Hlen. fold cp in Hlen |- *. destruct Hms as [Hms|[Hnil ->]].
    + rewrite Hms in Hw. inversion Hw; subst ms'. apply Forall2_combine. auto.
    + fold cp in Hnil. rewrite Hnil in *. destruct ms'; [constructor|discriminate].
Qed.


Definition mask_min (pools0 before : list pool) (e : entry) (m : mask) : Prop :=
  (let '(per, u, f) := ref_row before e in min_groups per u f = Some (len m))
  /\ (is_forced (e_req e) = true -> at_min pools0 before e = true).

Lemma gc_direct pools0 before e p ra :
  get_at before (e_res e) = Ok p -> is_groups p && is_relevant_for_coupling (e_req e) = false ->
  group_count_ok pools0 before e ra = true.
Proof.
  intros Hg Hnc. apply get_at_ok in Hg. destruct Hg as [_ Hn]. unfold group_count_ok. rewrite Hn.
  destruct (e_req e) as [pol a|]; [|reflexivity].
  destruct p; try reflexivity. destruct (nth_error pools0 (nat_of (e_res e))); [|reflexivity].
  destruct (split a). destruct pol; try reflexivity; discriminate Hnc.
Qed.

Lemma opt_eqb_eq a b : opt_eqb a b = true -> a = b.
Proof. destruct a, b; cbn [opt_eqb]; intros H; try discriminate; auto. apply N.eqb_eq in H. congruence. Qed.

Lemma gc_coupled pools0 before e m wit p p' ra :
  get_at before (e_res e) = Ok p -> mask_min pools0 before e m ->
  claim_with_group_mask p (e_res e) (e_req e) m wit = Ok (p', ra) -> claim_ok p p' (e_res e) (e_req e) ra = true ->
  group_count_ok pools0 before e ra = true.
Proof.
  intros Hg [Hmin Hat] Hc Hok.
  destruct (claim_with_group_mask_inv _ _ _ _ _ _ _ Hc) as (full & gs & pol & a & _ & _ & -> & Hreq & _). rewrite Hreq in *.
  apply get_at_ok in Hg. destruct Hg as [_ Hn]. rewrite (ref_row_eq _ _ _ _ _ _ Hn Hreq) in Hmin.
  destruct (claimed_eq_selected _ _ _ _ _ _ _ _ _ Hc Hok Hmin) as [Hused _].
  unfold group_count_ok. rewrite Hreq, Hn.
  destruct (nth_error pools0 (nat_of (e_res e))) as [p0|] eqn:E0; [|reflexivity].
  unfold at_min in Hat. rewrite Hreq, Hn, E0 in Hat.
  change (pool_per_group (PGroups full gs)) with (per_of gs) in *.
  destruct (split a) as [u f]. cbn [fst snd] in Hmin.
  destruct pol; try discriminate Hc.
  - rewrite Hmin. apply N.eqb_eq. auto.
  - rewrite Hmin. apply N.eqb_eq. auto.
  - specialize (Hat eq_refl). apply opt_eqb_eq in Hat. rewrite <- Hat, Hmin. apply N.eqb_eq. auto.
  - specialize (Hat eq_refl). apply opt_eqb_eq in Hat. rewrite <- Hat, Hmin. apply N.eqb_eq. auto.
Qed.

Lemma minimal_answer_masks pools0 before cp : forall ms,
  minimal_answer (map (ref_row before) cp) ms ->
  (forall e, In e cp -> is_forced (e_req e) = true -> at_min pools0 before e = true) ->
  Forall2 (mask_min pools0 before) cp ms.
Proof.
  induction cp as [|e cp IH]; intros [|m ms] Hmin Hat; cbn [map minimal_answer] in Hmin.
  - apply Forall2_nil.
  - contradiction.
  - destruct (ref_row before e) as [[per u] f]. contradiction.
  - destruct (ref_row before e) as [[per u] f] eqn:Er. destruct Hmin as [H1 H2].
    apply Forall2_cons.
    + split; [rewrite Er; exact H1 | intros Hf; apply Hat; auto; left; auto].
    + apply IH; auto. intros e' He'. apply Hat. right. auto.
Qed.

(** the monitor group-count for a grant, given that the strict entries are at their empty-worker minimum
    (every allocator state) *)
Theorem grant_group_count : forall pools0 s rq w s' al,
  NoDup (map e_res rq) ->
  (forall ms, w_mask w = Some ms ->
              minimal_answer (map (ref_row (a_pools (s_alloc s))) (coupled_entries (a_pools (s_alloc s)) rq)) ms) ->
  (forall e, In e (coupled_entries (a_pools (s_alloc s)) rq) -> is_forced (e_req e) = true ->
             at_min pools0 (a_pools (s_alloc s)) e = true) ->
  step s (OAlloc rq w) = Ok (s', OutGrant al) ->
  Forall (fun ra => exists e, In e rq /\ e_res e = ra_res ra /\ group_count_ok pools0 (a_pools (s_alloc s)) e ra = true) al.
Proof.
  intros pools0 s rq w s' al Hnd Hmin Hat Hs. destruct (step_grant_inv _ _ _ _ _ Hs) as (yard & pools & free' & _ & Ec & _). clear Hs.
  refine (claim_resources_loop (fun e ra => group_count_ok pools0 (a_pools (s_alloc s)) e ra = true)
            (mask_min pools0 (a_pools (s_alloc s))) _ rq w _ _ _ _ Hnd _ Ec); cbn [a_pools].
  - intros e wit p p' ra Hg Hnc _ _. eapply gc_direct; eauto.
  - intros e m wit p p' ra Hg Hm Hc Hok. eapply gc_coupled; eauto.
  - intros ms Hw _. apply minimal_answer_masks; auto.
Qed.

(** without strict entries nothing but minimal answers is needed: compact / tight use the minimum number of groups
    possible in the current state (with or without coupling weights, for every allocator state) *)
Corollary C16_grant_group_count_nonstrict : forall pools0 s rq w s' al,
  NoDup (map e_res rq) -> unforced rq = true ->
  (forall ms, w_mask w = Some ms ->
              minimal_answer (map (ref_row (a_pools (s_alloc s))) (coupled_entries (a_pools (s_alloc s)) rq)) ms) ->
  step s (OAlloc rq w) = Ok (s', OutGrant al) ->
  Forall (fun ra => exists e, In e rq /\ e_res e = ra_res ra /\ group_count_ok pools0 (a_pools (s_alloc s)) e ra = true) al.
Proof.
  intros pools0 s rq w s' al Hnd Hu Hmin Hs. eapply grant_group_count; eauto.
  intros e He Hf. exfalso. unfold coupled_entries in He. apply filter_In in He. destruct He as [He _].
  unfold unforced in Hu. rewrite forallb_forall in Hu. specialize (Hu e He). rewrite Hf in Hu. discriminate.
Qed.

(** C16 strict grant group count, whole grants.  Reachable state of a worker WITHOUT coupling weights; the answers
    of the solver (for the empty worker - in the history and now -, for the admission test, for the claim) select
    the minimum number of groups per coupled entry.  Then every resource allocation of a grant satisfies the monitor
    group-count: a compact / tight entry uses min_groups of the pool before the grant, a compact! / tight! entry
    uses min_groups of the EMPTY worker - for all coupled entries of the request at once. *)
Theorem C16_strict_grant_group_count : forall d s0 ops s rq w s' al,
  init d = Ok s0 -> Forall valid_op ops -> run s0 ops = Ok s ->
  NoDup (map e_res rq) -> d_coupling d = [] ->
  Forall (yard_op_ok (a_pools (s_alloc s0))) ops -> yard_witness_ok (a_pools (s_alloc s0)) rq w ->
  (forall ms, w_adm w = Some ms ->
              minimal_answer (map (ref_row (a_pools (s_alloc s))) (coupled_entries (a_pools (s_alloc s)) rq)) ms) ->
  (forall ms, w_mask w = Some ms ->
              minimal_answer (map (ref_row (a_pools (s_alloc s))) (coupled_entries (a_pools (s_alloc s)) rq)) ms) ->
  step s (OAlloc rq w) = Ok (s', OutGrant al) ->
  Forall (fun ra => exists e, In e rq /\ e_res e = ra_res ra
                              /\ group_count_ok (a_pools (s_alloc s0)) (a_pools (s_alloc s)) e ra = true) al.
Proof.
  intros d s0 ops s rq w s' al Hi Hv Hr Hnd Hnc Hyops Hyw Hadm Hmask Hs.
  eapply grant_group_count; eauto.
  intros e He Hf.
  assert (Hforced : existsb (fun e0 => is_forced (e_req e0)) (coupled_entries (a_pools (s_alloc s)) rq) = true)
    by (apply existsb_exists; eauto).
  destruct (step_grant_inv _ _ _ _ _ Hs) as (yard & _ & _ & Eh & _).
  pose proof (C16_strict_admission d s0 ops s rq w true yard Hi Hv Hr Hnc Hyops Hyw Hadm Hforced Eh) as Hok.
  symmetry in Hok. apply andb_true_iff in Hok. destruct Hok as [_ Hall]. rewrite forallb_forall in Hall. auto.
Qed.

(** non-vacuity: groups of 2 and 6 indices after a scatter of 2 units (1 and 5 left, as in
    PolicyStrictReach.strict_admission_example): `tight! 2` is granted from group 1 - one group, the minimum of the
    empty worker; the run satisfies every hypothesis *)
Example strict_grant_group_count_example :
  let rq := [mkEntry 0 (Req ForceTight 20000)] in
  let w := mkWitness (Some [[1]]) (Some [[1]]) (Some [[0]]) [] in
  let ops := [OAlloc [mkEntry 0 (Req Scatter 20000)] no_wit] in
  exists s0 s s' al,
    init ex_strict_desc = Ok s0 /\ run s0 ops = Ok s
    /\ Forall (yard_op_ok (a_pools (s_alloc s0))) ops /\ yard_witness_ok (a_pools (s_alloc s0)) rq w
    /\ minimal_answer (map (ref_row (a_pools (s_alloc s))) (coupled_entries (a_pools (s_alloc s)) rq)) [[1]]
    /\ step s (OAlloc rq w) = Ok (s', OutGrant al)
    /\ al = [mkRalloc 0 20000 [mkAidx 6 1 0; mkAidx 5 1 0]]
    /\ forallb (fun ra => group_count_ok (a_pools (s_alloc s0)) (a_pools (s_alloc s)) (mkEntry 0 (Req ForceTight 20000)) ra) al = true.
Proof.
  cbv zeta. eexists. eexists. eexists. eexists.
  split; [vm_compute; reflexivity|]. split; [vm_compute; reflexivity|].
  split; [constructor; [intros ms Hms; discriminate Hms|constructor]|].
  split; [intros ms Hms; inversion Hms; subst; vm_compute; auto|].
  split; [vm_compute; auto|]. split; [vm_compute; reflexivity|]. split; vm_compute; reflexivity.
Qed.

Print Assumptions grant_claimed_within_selected.
Print Assumptions grant_group_count.
Print Assumptions C16_grant_group_count_nonstrict.
Print Assumptions C16_strict_grant_group_count.
