(** C16 group count - the statements proved in Alloc/PolicyGC*.v, collected (only [exact] / short glue);
    re-exported by properties/C16.v.  Open item of tools/props/C16.json addressed: C16_strict_grant_group_count_full
    (the Definition in properties/C16.v quantifies over arbitrary (e, ra) and is not meant literally; the theorems
    below are its conditional form for the resource allocations of grants). *)
From HQ Require Import Base.Prelude Gen.Consts Alloc.Model Alloc.Spec Alloc.Lemmas Alloc.MirrorSystem Alloc.Objective
  Alloc.PolicyAdmission Alloc.PolicyStrict Alloc.PolicyStrictReach Alloc.PolicyStrictYard Alloc.PolicyOptimal
  Alloc.PolicyGCBase Alloc.PolicyGCClaim Alloc.PolicyGCGrant.
Open Scope N_scope.


(** one claim: the groups claimed are among the groups selected *)
Theorem C16_claimed_subset_selected : forall p rid rq mask wit p' ra,
  claim_with_group_mask p rid rq mask wit = Ok (p', ra) ->
  forall g, In g (used (ra_indices ra)) -> In g mask.
Proof. exact claimed_subset_selected. Qed.

(** every accepted claim on a group pool (scatter included) uses a set of groups that can hold the amount, hence at
    least min_groups of the pool before *)
Theorem C16_accepted_ge_min : forall full gs p' rid pol a ra,
  claim_ok (PGroups full gs) p' rid (Req pol a) ra = true ->
  sufficient (per_of gs) (fst (split a)) (snd (split a)) (used (ra_indices ra)) = true
  /\ exists k, min_groups (per_of gs) (fst (split a)) (snd (split a)) = Some k /\ k <= groups_used ra.
Proof. exact accepted_ge_min. Qed.

(** whole grants: for every coupled entry, claimed within selected and min_groups(before) <= used <= selected *)
Theorem C16_grant_claimed_within_selected : forall s rq w s' al,
  NoDup (map e_res rq) ->
  step s (OAlloc rq w) = Ok (s', OutGrant al) ->
  forall ms, (w_mask w = Some ms \/ (coupled_entries (a_pools (s_alloc s)) rq = [] /\ ms = [])) ->
  Forall (fun ra => exists e, In e rq /\ e_res e = ra_res ra
                              /\ within_selected (a_pools (s_alloc s)) (coupled_entries (a_pools (s_alloc s)) rq) ms e ra) al.
Proof. exact grant_claimed_within_selected. Qed.


(** one claim: a selection with the minimum number of groups is claimed entirely *)
Theorem C16_claimed_eq_selected : forall full gs rid pol a mask wit p' ra,
  claim_with_group_mask (PGroups full gs) rid (Req pol a) mask wit = Ok (p', ra) ->
  claim_ok (PGroups full gs) p' rid (Req pol a) ra = true ->
  min_groups (per_of gs) (fst (split a)) (snd (split a)) = Some (len mask) ->
  groups_used ra = len mask
  /\ (NoDup mask -> forall g, In g mask <-> In g (used (ra_indices ra))).
Proof. exact claimed_eq_selected. Qed.

(** whole grants, no strict entry (every allocator state, any coupling weights): the monitor group-count *)
Theorem C16_grant_group_count_nonstrict : forall pools0 s rq w s' al,
  NoDup (map e_res rq) -> unforced rq = true ->
  (forall ms, w_mask w = Some ms ->
              minimal_answer (map (ref_row (a_pools (s_alloc s))) (coupled_entries (a_pools (s_alloc s)) rq)) ms) ->
  step s (OAlloc rq w) = Ok (s', OutGrant al) ->
  Forall (fun ra => exists e, In e rq /\ e_res e = ra_res ra /\ group_count_ok pools0 (a_pools (s_alloc s)) e ra = true) al.
Proof. exact PolicyGCGrant.C16_grant_group_count_nonstrict. Qed.

(** whole grants with strict entries, worker without coupling weights: the monitor group-count *)
Theorem C16_strict_grant_group_count : forall d s0 ops s rq w s' al,
  init d = Ok s0 -> Forall valid_op ops -> run s0 ops = Ok s ->
  NoDup (map e_res rq) -> d_coupling d = [] ->
  Forall (yard_op_ok (a_pools (s_alloc s0))) ops -> yard_witness_ok (a_pools (s_alloc s0)) rq w ->
  (forall ms, w_adm w = Some ms ->
              minimal_answer (map (ref_row (a_pools (s_alloc s))) (coupled_entries (a_pools (s_alloc s)) rq)) ms) ->
  (forall ms, w_mask w = Some ms ->
              minimal_answer (map (ref_row (a_pools (s_alloc s))) (coupled_entries (a_pools (s_alloc s)) rq)) ms) ->
  step s (OAlloc rq w) = Ok (s', OutGrant al) ->
  Forall (fun ra => exists e, In e rq /\ e_res e = ra_res ra
                              /\ group_count_ok (a_pools (s_alloc s0)) (a_pools (s_alloc s)) e ra = true) al.
Proof. exact PolicyGCGrant.C16_strict_grant_group_count. Qed.

(** the same with the hypotheses in the terms of the monitor solver-suboptimal: every answer of the solver is optimal
    for the objective without tie-breaking terms ([answer_optimal false], what the driver requires of every answer) *)
Definition yard_op_optimal (pools0 : list pool) (o : op) : Prop :=
  match o with
  | OAlloc rq w | OEnabled rq w =>
      forall ms, w_yard w = Some ms -> answer_optimal false (map concise_state pools0) pools0 [] rq ms = true
  | ORelease _ => True
  end.

Theorem C16_strict_grant_group_count_optimal : forall d s0 ops s rq w s' al,
  init d = Ok s0 -> Forall valid_op ops -> run s0 ops = Ok s ->
  NoDup (map e_res rq) -> d_coupling d = [] ->
  Forall (yard_op_optimal (a_pools (s_alloc s0))) ops -> yard_op_optimal (a_pools (s_alloc s0)) (OAlloc rq w) ->
  (forall ms, w_adm w = Some ms ->
              answer_optimal false (a_free (s_alloc s)) (a_pools (s_alloc s)) (a_weights (s_alloc s)) rq ms = true) ->
  (forall ms, w_mask w = Some ms ->
              answer_optimal false (a_free (s_alloc s)) (a_pools (s_alloc s)) (a_weights (s_alloc s)) rq ms = true) ->
  step s (OAlloc rq w) = Ok (s', OutGrant al) ->
  Forall (fun ra => exists e, In e rq /\ e_res e = ra_res ra
                              /\ group_count_ok (a_pools (s_alloc s0)) (a_pools (s_alloc s)) e ra = true) al.
Proof.
  intros d s0 ops s rq w s' al Hi Hv Hr Hnd Hnc Hyops Hyw Hadm Hmask Hs.
  eapply PolicyGCGrant.C16_strict_grant_group_count; eauto.
  - eapply Forall_impl; [|exact Hyops]. intros o Ho. destruct o as [rq' w'|k|rq' w']; cbn [yard_op_ok yard_op_optimal] in *; auto;
      eapply answer_optimal_yard; eauto.
  - eapply answer_optimal_yard; eauto.
  - intros ms Hms. eapply answer_optimal_now; eauto.
  - intros ms Hms. eapply answer_optimal_now; eauto.
Qed.

Print Assumptions C16_claimed_subset_selected.
Print Assumptions C16_accepted_ge_min.
Print Assumptions C16_grant_claimed_within_selected.
Print Assumptions C16_claimed_eq_selected.
Print Assumptions C16_grant_group_count_nonstrict.
Print Assumptions C16_strict_grant_group_count.
Print Assumptions C16_strict_grant_group_count_optimal.
