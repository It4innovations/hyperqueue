(** `all` is granted only when everything of the resource is free - and then passes the check [claim_ok]. *)
From Coq Require Import Permutation.
From HQ Require Import Base.Prelude Gen.Consts Alloc.Model Alloc.Spec Alloc.Lemmas Alloc.Group Alloc.Pool Alloc.Inv Alloc.Claims Alloc.Mirror Alloc.Theorems Alloc.MirrorSystem Alloc.Objective Alloc.Admission Alloc.CompleteTight.
Require Import ZifyBool.
Open Scope N_scope.

(** the size of an index / group pool is the number of indices it owns *)
Definition usize (p : pool) : N := sumN (map (fun g => len (g_idx g)) (pool_groups p)).
Definition sized (p : pool) : Prop := match p with PSum _ _ => True | _ => pool_full_size p = usize p * FPU end.

Lemma groups_from_usize sizes : forall s, sumN (map (fun g => len (g_idx g)) (groups_from sizes s)) = N.of_nat (fold_right Nat.add O sizes).
Proof.
  induction sizes as [|n sizes IH]; intros s; simpl; [reflexivity|].
  cbn [map]. rewrite sumN_cons, IH. simpl. unfold len. rewrite rev_length.
  assert (L : forall k st, length (seqN st k) = k) by (induction k; simpl; auto).
  rewrite L. lia.
Qed.

Lemma length_concat (groups : list (list N)) : length (concat groups) = fold_right Nat.add O (map (@length N) groups).
Proof. induction groups; simpl; auto. rewrite app_length, IHgroups. auto. Qed.

Lemma pool_new_sized k p : pool_new k = Some p -> sized p.
Proof.
  assert (L : forall k st, length (seqN st k) = k) by (induction k0; simpl; auto).
  destruct k; simpl.
  - destruct (nodupb labels); intros H; inversion H; subst. simpl. unfold usize, mk_amount. simpl. rewrite sumN_cons, sumN_nil.
    unfold len. rewrite rev_length, L. lia.
  - intros H; inversion H; subst. simpl. unfold usize, mk_amount. simpl. rewrite sumN_cons, sumN_nil.
    unfold len. rewrite rev_length, L. lia.
  - destruct (nodupb (concat groups)); intros H; inversion H; subst. simpl. unfold usize, mk_amount. simpl.
    rewrite groups_from_usize. unfold len. rewrite length_concat. lia.
  - intros H; inversion H; subst. simpl. auto.
Qed.

Lemma init_sized d s0 : init d = Ok s0 -> Forall sized (a_pools (s_alloc s0)).
Proof.
  intros Hi. destruct (init_inv _ _ Hi) as (pools & ws & -> & _ & HP). apply HP; [|apply pool_new_sized].
  simpl. unfold usize. simpl. rewrite sumN_nil. lia.
Qed.

Lemma hr_entries_all pools free entries : forall coupling cp,
  hr_entries pools free entries coupling = Ok (true, cp) ->
  forall e, In e entries -> e_req e = ReqAll ->
  exists p c m, nth_error pools (nat_of (e_res e)) = Some p /\ nth_error free (nat_of (e_res e)) = Some c
                /\ amount_max_alloc c = Ok m /\ m = pool_full_size p.
Proof.
  induction entries as [|x rest IH]; intros coupling cp H e Hin Hall; [destruct Hin|].
  simpl in H. destruct (N.leb_spec (len pools) (e_res x)); [discriminate|].
  destruct (get_at pools (e_res x)) as [p| |] eqn:Ep; cbn [bind] in H; try discriminate.
  destruct (get_at free (e_res x)) as [c| |] eqn:Ec; cbn [bind] in H; try discriminate.
  destruct (amount_max_alloc c) as [m| |] eqn:Em; cbn [bind] in H; try discriminate.
  destruct Hin as [<-|Hin].
  - rewrite Hall in H. destruct (N.eqb_spec m (pool_full_size p)); [|discriminate].
    apply get_at_ok in Ep. apply get_at_ok in Ec. destruct Ep, Ec. exists p, c, m. auto.
  - destruct (match e_req x with Req _ a => a <=? m | ReqAll => m =? pool_full_size p end); [|discriminate].
    eapply IH; eauto.
Qed.

Lemma has_resources_true a rq w yard :
  has_resources a rq w = Ok (true, yard) -> exists cp, hr_entries (a_pools a) (a_free a) rq [] = Ok (true, cp).
Proof.
  unfold has_resources. destruct (hr_entries (a_pools a) (a_free a) rq []) as [[ok cp]| |]; cbn [bind]; try discriminate.
  destruct ok; simpl; [eauto|]. intros H; inversion H.
Qed.

Lemma sum_le_eq (xs ys : list N) :
  Forall2 (fun x y => x <= y) xs ys -> sumN xs = sumN ys -> Forall2 eq xs ys.
Proof.
  induction 1 as [|x y xs ys Hxy H IH]; intros Hs; [constructor|].
  rewrite !sumN_cons in Hs.
  assert (sumN xs <= sumN ys). { clear -H. induction H; rewrite ?sumN_cons, ?sumN_nil; lia. }
  constructor; [lia|]. apply IH. lia.
Qed.

Lemma GI_stack_inside g u h hf : GI u g h hf -> NoDup (g_idx g) /\ incl (g_idx g) u.
Proof.
  intros ((Hnd & _) & _ & Hout & _). split; auto.
  intros y Hy. destruct (in_dec N.eq_dec y u) as [|Hn]; auto. destruct (Hout y Hn) as [X _]. contradiction.
Qed.

(** the index stacks lie inside what the groups own: when they are as long in total, every index is on its stack *)
Lemma stacks_full us gs h hf :
  GsI us gs h hf -> sumN (map (fun g => len (g_idx g)) gs) = sumN (map (fun u : list N => len u) us) ->
  forall n un gn, nth_error us n = Some un -> nth_error gs n = Some gn -> incl un (g_idx gn).
Proof.
  intros [Lg HG] Hsum.
  assert (Hin : forall n un gn, nth_error us n = Some un -> nth_error gs n = Some gn -> NoDup (g_idx gn) /\ incl (g_idx gn) un).
  { intros n un gn Eu En. apply (GI_stack_inside gn un (h (N.of_nat n)) (hf (N.of_nat n))).
    specialize (HG (N.of_nat n) un gn). rewrite nat_of_of_nat in HG. apply HG; auto.
    apply nth_error_some_lt in En. unfold len. lia. }
  assert (Hle : Forall2 (fun x y => x <= y) (map (fun g => len (g_idx g)) gs) (map (fun u : list N => len u) us)).
  { apply Forall2_from_nth; [rewrite !map_length; auto|].
    intros n x y Hx Hy. rewrite nth_error_map in Hx, Hy.
    destruct (nth_error gs n) as [gn|] eqn:En; [|discriminate]. destruct (nth_error us n) as [un|] eqn:Eu; [|discriminate].
    inversion Hx; inversion Hy; subst. destruct (Hin _ _ _ Eu En) as [Hnd Hincl].
    pose proof (NoDup_incl_length Hnd Hincl). unfold len. lia. }
  pose proof (sum_le_eq _ _ Hle Hsum) as Heq.
  intros n un gn Eu En. destruct (Hin _ _ _ Eu En) as [Hnd Hincl].
  assert (Hl : len (g_idx gn) = len un).
  { eapply (Forall2_nth2 _ _ _ n); [exact Heq| |]; rewrite nth_error_map; [rewrite En|rewrite Eu]; reflexivity. }
  apply NoDup_length_incl; auto. unfold len in Hl. lia.
Qed.

(** C04: an `all` entry of an index / group resource is granted only when every index is free *)
Theorem all_only_when_free_groups d s0 ops s rq w s' al e p0 :
  init d = Ok s0 -> Forall valid_op ops -> run s0 ops = Ok s ->
  step s (OAlloc rq w) = Ok (s', OutGrant al) -> In e rq -> e_req e = ReqAll ->
  nth_error (worker_pools s0) (nat_of (e_res e)) = Some p0 -> pool_is_sum p0 = false ->
  forall g i, in_universe (worker_pools s0) (e_res e) g i = true ->
              pools_free (a_pools (s_alloc s)) (e_res e) g i = FPU.
Proof.
  intros Hi Hv Hr Hs Hin Hall H0 Hns g i Hu.
  pose proof (reachable_full _ _ _ _ Hi Hv Hr) as HF.
  destruct HF as [HI _]. pose proof (reachable_nodup _ _ _ _ Hi Hr) as Hn.
  pose proof (init_sized _ _ Hi) as Hsz.
  destruct (step_grant_inv _ _ _ _ _ Hs) as (yard & _ & _ & Eh & _).
  destruct (has_resources_true _ _ _ _ Eh) as [cp Hhr].
  destruct (hr_entries_all _ _ _ _ _ Hhr e Hin Hall) as (p & c & m & Hp & Hc & Hm & Hfull).
  unfold worker_pools in *.
  assert (Hr0 : e_res e < len (a_pools (s_alloc s0))).
  { apply nth_error_some_lt in H0. unfold len, nat_of in *. lia. }
  pose proof (PoolsInv_nth _ _ _ _ _ _ _ _ _ HI Hr0 H0 Hp Hc) as HPI.
  assert (Hcn : cs_nodup c) by (eapply Forall_nth; eauto).
  assert (Hsized : sized p0) by (eapply Forall_nth; eauto).
  assert (K : same_kind p0 p = true) by apply HPI. assert (F : pool_full_size p = pool_full_size p0) by apply HPI.
  destruct (PoolInv_groups _ _ _ _ _ HPI) as (HG & Hmr & Hw); [rewrite (same_kind_sum _ _ K); exact Hns|].
  destruct (groups_max_alloc _ _ Hmr Hw Hcn) as [A B]. rewrite A in Hm. injection Hm as <-.
  (* the admission test compares the free amount with the full size: every stack has its full length *)
  assert (Hsum : sumN (map (fun g1 => len (g_idx g1)) (pool_groups p)) = sumN (map (fun u : list N => len u) (pool_us p0))).
  { unfold pool_us. rewrite map_map. fold (usize p0).
    assert (Hs0 : pool_full_size p0 = usize p0 * FPU) by (destruct p0; try discriminate Hns; exact Hsized).
    rewrite F, Hs0 in Hfull. unfold mk_amount, FPU, FRACTIONS_PER_UNIT in *. lia. }
  unfold in_universe in Hu. rewrite H0 in Hu. change (pool_universe p0) with (pool_us p0) in Hu.
  destruct (nth_error (pool_us p0) (nat_of g)) as [u|] eqn:Eu; [|discriminate Hu]. apply memN_in in Hu.
  unfold pools_free. rewrite Hp. unfold pool_free.
  destruct (nth_error (pool_groups p) (nat_of g)) as [gn|] eqn:En.
  2:{ apply nth_error_None in En. apply nth_error_some_lt in Eu. destruct HG as [Lg _]. lia. }
  apply group_free_in. exact (stacks_full _ _ _ _ HG Hsum _ _ _ Eu En i Hu).
Qed.

(** ... and of a sum resource only when nothing of it is taken *)
Theorem all_only_when_free_sum d s0 ops s rq w s' al e f x :
  init d = Ok s0 -> Forall valid_op ops -> run s0 ops = Ok s ->
  step s (OAlloc rq w) = Ok (s', OutGrant al) -> In e rq -> e_req e = ReqAll ->
  nth_error (worker_pools s0) (nat_of (e_res e)) = Some (PSum f x) ->
  nth_error (a_pools (s_alloc s)) (nat_of (e_res e)) = Some (PSum f f).
Proof.
  intros Hi Hv Hr Hs Hin Hall H0.
  pose proof (reachable_full _ _ _ _ Hi Hv Hr) as HF.
  destruct HF as [HI _]. pose proof (reachable_nodup _ _ _ _ Hi Hr) as Hn.
  destruct (step_grant_inv _ _ _ _ _ Hs) as (yard & _ & _ & Eh & _).
  destruct (has_resources_true _ _ _ _ Eh) as [cp Hhr].
  destruct (hr_entries_all _ _ _ _ _ Hhr e Hin Hall) as (p & c & m & Hp & Hc & Hm & Hfull).
  unfold worker_pools in *.
  assert (Hr0 : e_res e < len (a_pools (s_alloc s0))).
  { apply nth_error_some_lt in H0. unfold len, nat_of in *. lia. }
  pose proof (PoolsInv_nth _ _ _ _ _ _ _ _ _ HI Hr0 H0 Hp Hc) as (K & F & C).
  assert (Hcn : cs_nodup c) by (eapply Forall_nth; eauto).
  destruct p as [| | |f' free]; try discriminate K. simpl in F. subst f'.
  destruct C as (_ & (cg & -> & Hsm & Hl & Ho) & _). pose proof (Forall_inv Hcn) as Hnk. cbv beta in Hnk.
  unfold amount_max_alloc, cs_max_fraction, cs_units_sum in Hm. simpl in Hm.
  rewrite (fmax_single _ Hnk Ho), N.max_0_r in Hm.
  destruct (N.ltb_spec (fget0 (c_fr cg) 0) FPU); [|lia]. injection Hm as Hm'. rewrite <- Hm' in Hfull.
  unfold mk_amount in Hfull. simpl in Hfull. rewrite N.add_0_r, Hsm in Hfull. subst. auto.
Qed.


Lemma perm_removeN i l : In i l -> Permutation l (i :: removeN i l).
Proof.
  induction l as [|x l IH]; simpl; [tauto|]. destruct (N.eqb_spec x i).
  - subst. auto.
  - intros [H|H]; [congruence|]. eapply perm_trans; [apply perm_skip, IH; auto | apply perm_swap].
Qed.

Lemma take_group_all l : forall gs k g,
  get_at gs k = Ok g -> NoDup (g_idx g) -> Permutation l (g_idx g) ->
  take_all gs (map (fun i => mkAidx i k 0) l) = Some (set_at gs k (mkGroup [] (g_fr g))).
Proof.
  induction l as [|i l IH]; intros gs k g Hg Hnd Hp.
  - apply Permutation_nil in Hp. simpl. f_equal. symmetry. apply set_at_same. destruct g; simpl in *; subst; auto.
  - assert (Hin : In i (g_idx g)) by (eapply Permutation_in; [exact Hp|left; auto]).
    cbn [map take_all ai_group]. rewrite Hg. rewrite take1_whole by reflexivity. cbn [ai_index].
    apply memN_in in Hin. rewrite Hin. apply memN_in in Hin.
    pose proof (IH (set_at gs k (mkGroup (removeN i (g_idx g)) (g_fr g))) k (mkGroup (removeN i (g_idx g)) (g_fr g))) as X.
    simpl in X. rewrite X.
    + rewrite set_at_set_at. auto.
    + eapply get_at_set_at_same'; eauto.
    + apply nodup_removeN; auto.
    + apply (Permutation_cons_inv (a := i)). eapply perm_trans; [exact Hp|]. apply perm_removeN; auto.
Qed.

Lemma claim_all_spec gs' : forall pre gid gs2 out,
  gid = len pre -> Forall gwf gs' ->
  claim_all_from_groups gs' gid = (gs2, out) ->
  take_all (pre ++ gs') out = Some (pre ++ gs2) /\ Forall whole out
  /\ sumN (map held_ix out) = sumN (map (fun g => len (g_idx g)) gs') * FPU.
Proof.
  induction gs' as [|g gs' IH]; intros pre gid gs2 out Hgid Hwf Hc; simpl in Hc.
  - inversion Hc; subst. simpl. rewrite sumN_nil. repeat split; auto. 
  - destruct (claim_all_from_groups gs' (gid + 1)) as [gs3 out3] eqn:E. inversion Hc; subst gs2 out. clear Hc.
    inversion Hwf as [|? ? (Hnd & _) Hwf']; subst.
    assert (Hg : get_at (pre ++ g :: gs') (len pre) = Ok g).
    { apply get_at_ok. split; [rewrite len_app; unfold len; simpl; lia|].
      replace (nat_of (len pre)) with (length pre) by (unfold nat_of, len; lia).
      rewrite nth_error_app2 by lia. rewrite Nat.sub_diag. auto. }
    assert (Hset : set_at (pre ++ g :: gs') (len pre) (mkGroup [] (g_fr g)) = (pre ++ [mkGroup [] (g_fr g)]) ++ gs').
    { apply nth_error_ext. intros n. rewrite nth_error_set_at.
      assert (len pre < len (pre ++ g :: gs')) by (rewrite len_app; unfold len; simpl; lia).
      destruct (N.ltb_spec (len pre) (len (pre ++ g :: gs'))); [|lia]. simpl.
      replace (nat_of (len pre)) with (length pre) by (unfold nat_of, len; lia).
      rewrite <- app_assoc. simpl.
      destruct (Nat.eqb_spec (length pre) n).
      - subst. rewrite nth_error_app2 by lia. rewrite Nat.sub_diag. auto.
      - destruct (Nat.lt_ge_cases n (length pre)).
        + rewrite !nth_error_app1 by lia. auto.
        + rewrite !nth_error_app2 by lia. destruct (n - length pre)%nat eqn:En; [lia|]. auto. }
    destruct (IH (pre ++ [mkGroup [] (g_fr g)]) (len pre + 1) gs3 out3) as (A & B & C); auto.
    { rewrite len_app. unfold len. simpl. lia. }
    split; [|split].
    + rewrite take_all_app. rewrite (take_group_all (rev (g_idx g)) _ _ g Hg Hnd); [|apply Permutation_sym, Permutation_rev].
      rewrite Hset, A. rewrite <- app_assoc. auto.
    + apply Forall_app. split; auto. apply Forall_forall. intros x Hx. apply in_map_iff in Hx. destruct Hx as [? [<- _]]. reflexivity.
    + rewrite map_app, sumN_app, C. cbn [map]. rewrite sumN_cons.
      assert (Hs : sumN (map held_ix (map (fun i => mkAidx i (len pre) 0) (rev (g_idx g)))) = len (g_idx g) * FPU).
      { rewrite sum_whole; [|apply Forall_forall; intros x Hx; apply in_map_iff in Hx; destruct Hx as [? [<- _]]; reflexivity].
        unfold len. rewrite map_length, rev_length. auto. }
      rewrite Hs. lia.
Qed.

Theorem claim_complete_all full gs rid wit p' ra :
  gs_wf gs -> full = usize (PGroups full gs) * FPU ->
  pool_claim (PGroups full gs) rid ReqAll wit = Ok (p', ra) -> claim_ok (PGroups full gs) p' rid ReqAll ra = true.
Proof.
  intros Hwf Hfull Hc. unfold pool_claim in Hc.
  destruct (claim_all_from_groups gs 0) as [gs' out] eqn:E. inversion Hc; subst p' ra. clear Hc.
  destruct (claim_all_spec gs [] 0 gs' out eq_refl Hwf E) as (A & B & C). simpl in A.
  unfold claim_ok, ra_total. cbn [ra_res ra_amount ra_indices pool_full_size pool_groups req_amount].
  rewrite !N.eqb_refl. rewrite ra_total_sum, C. unfold usize in Hfull. simpl in Hfull. rewrite <- Hfull, N.eqb_refl.
  rewrite <- (app_nil_r out) at 1. rewrite (shape_ok_app out []) by auto. rewrite A. simpl. apply groups_eqb_refl.
Qed.
