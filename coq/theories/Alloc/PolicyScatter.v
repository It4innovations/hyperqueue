(** C16 - the round-robin loop of ResourcePool::claim_scatter_from_groups (policy scatter over all groups,
    policies compact / compact! over the groups selected by the solver):
    the whole indices are handed out in rounds over the groups, one index per non-empty group and round.
    Hence (scatter) the claim touches min(units, number of non-empty groups) groups and (compact) the numbers of
    whole indices taken from two of the groups differ by at most one unless the smaller one was drained. *)
From Coq Require Import Permutation.
From HQ Require Import Base.Prelude Gen.Consts Alloc.Model Alloc.Spec Alloc.Lemmas Alloc.Group Alloc.Pool Alloc.Inv Alloc.Theorems Alloc.Mirror Alloc.MirrorSystem Alloc.CompleteTight Alloc.PolicyBase.
Require Import ZifyBool.
Open Scope N_scope.

(** the list of groups the loop cycles through *)
Definition slist (n : nat) (sel : option (list N)) : list N := match sel with Some s => s | None => seqN 0 n end.

(** positions of [s] are pairwise different groups *)
Definition sinj (s : list N) : Prop := forall j1 j2 g, get_at s j1 = Ok g -> get_at s j2 = Ok g -> j1 = j2.

Lemma sinj_nodup s : NoDup s -> sinj s.
Proof.
  intros Hnd j1 j2 g H1 H2. apply get_at_ok in H1, H2. destruct H1 as [L1 N1], H2 as [L2 N2].
  apply nat_of_inj. rewrite NoDup_nth_error in Hnd. apply Hnd; [unfold len, nat_of in *; lia | congruence].
Qed.

Lemma sinj_seqN n : sinj (seqN 0 n).
Proof. apply sinj_nodup, nodup_seqN. Qed.

(** state of the rounds: in round [c], the groups at positions < [pos] already got their index of this round *)
Definition EvenAt (s : list N) (L : N -> N) (out : list aidx) (c pos : N) : Prop :=
  forall j g, get_at s j = Ok g -> wc out g = N.min (if j <? pos then c + 1 else c) (L g).

Definition okix (n : nat) (s : list N) (ix : aidx) : Prop :=
  (exists j, get_at s j = Ok (ai_group ix)) /\ ai_group ix < N.of_nat n.

Section RoundRobin.
  Variables (n : nat) (sel : option (list N)) (wit : option N) (L : N -> N).
  Let s := slist n sel.
  Hypothesis Hinj : sinj s.

  Lemma sel_get (gs : list group) pos gi g : length gs = n ->
    (match sel with Some s0 => get_at s0 pos | None => Ok pos end) = Ok gi -> get_at gs gi = Ok g ->
    get_at s pos = Ok gi.
  Proof.
    intros Hn Hs Hg. unfold s, slist. destruct sel; auto. inversion Hs; subst. apply get_at_seqN_lt.
    apply get_at_range in Hg. unfold len in Hg. lia.
  Qed.

  Lemma sel_mod (gs : list group) : length gs = n ->
    (match sel with Some s0 => len s0 | None => len gs end) = len s.
  Proof. intros Hn. unfold s, slist. destruct sel; auto. unfold len. rewrite length_seqN. lia. Qed.

  Lemma scatter_frac_phase fuel : forall gs fr pos out gs' out',
    length gs = n ->
    scatter_loop fuel gs sel 0 fr pos wit out = Ok (gs', out') ->
    out' = out \/ exists F, out' = out ++ [F] /\ ai_frac F = fr /\ fr <> 0 /\ okix n s F.
  Proof.
    induction fuel as [|fuel IH]; intros gs fr pos out gs' out' Hn Hl; cbn [scatter_loop] in Hl.
    - destruct ((0 =? 0) && (fr =? 0)); [|discriminate]. inversion Hl; subst; auto.
    - destruct (N.eqb_spec fr 0) as [Hz|Hz].
      + rewrite N.eqb_refl in Hl. cbn [andb] in Hl. inversion Hl; subst; auto.
      + rewrite N.eqb_refl in Hl. cbn [andb] in Hl.
        destruct (match sel with Some s0 => get_at s0 pos | None => Ok pos end) as [gi| |] eqn:Egi; cbn [bind] in Hl; try discriminate.
        destruct (get_at gs gi) as [g| |] eqn:Eg; cbn [bind] in Hl; try discriminate.
        pose proof (sel_get _ _ _ _ Hn Egi Eg) as Hs.
        assert (Hrange : gi < N.of_nat n) by (apply get_at_range in Eg; unfold len in Eg; lia).
        destruct (N.ltb_spec 0 0) as [Hlt|_]; [lia|].
        destruct (best_fraction_match (g_fr g) fr wit) as [[[i f]|]| |] eqn:Eb; cbn [bind] in Hl; try discriminate.
        * rewrite scatter_loop_done in Hl. inversion Hl; subst. right. eexists. split; [reflexivity|].
          cbn [ai_frac ai_group]. repeat split; auto. exists pos; auto.
        * destruct (g_idx g) as [|i rest] eqn:Es.
          -- eapply IH; eauto.
          -- rewrite scatter_loop_done in Hl. inversion Hl; subst. right. eexists. split; [reflexivity|].
             cbn [ai_frac ai_group]. repeat split; auto. exists pos; auto.
  Qed.

  Lemma even_step out out1 c pos gi :
    get_at s pos = Ok gi ->
    EvenAt s L out c pos ->
    wc out1 gi = N.min (c + 1) (L gi) ->
    (forall g, g <> gi -> wc out1 g = wc out g) ->
    exists c', EvenAt s L out1 c' ((pos + 1) mod len s).
  Proof.
    intros Hs Hev Hgi Hoth. pose proof (get_at_range _ _ _ Hs) as Hlt.
    destruct (N.eq_dec (pos + 1) (len s)) as [Hwrap|Hnw].
    - exists (c + 1). rewrite Hwrap, N.mod_same by lia.
      intros j g Hj. destruct (N.ltb_spec j 0) as [|_]; [lia|].
      destruct (N.eq_dec j pos) as [->|Hne].
      + rewrite Hj in Hs. inversion Hs; subst. auto.
      + assert (g <> gi) by (intros ->; apply Hne; eapply Hinj; eauto).
        rewrite Hoth by auto. rewrite (Hev _ _ Hj). pose proof (get_at_range _ _ _ Hj).
        destruct (N.ltb_spec j pos); [auto|lia].
    - exists c. rewrite N.mod_small by lia.
      intros j g Hj. destruct (N.eq_dec j pos) as [->|Hne].
      + rewrite Hj in Hs. inversion Hs; subst. destruct (N.ltb_spec pos (pos + 1)); [auto|lia].
      + assert (g <> gi) by (intros ->; apply Hne; eapply Hinj; eauto).
        rewrite Hoth by auto. rewrite (Hev _ _ Hj).
        destruct (N.ltb_spec j pos), (N.ltb_spec j (pos + 1)); auto; lia.
  Qed.

  (** the loop: conservation (whole indices taken + still free = free before) and the round structure *)
  Lemma scatter_units fuel : forall gs units fr pos out gs' out' c,
    length gs = n ->
    (forall g, wc out g + lenidx gs g = L g) ->
    EvenAt s L out c pos ->
    Forall (okix n s) out ->
    scatter_loop fuel gs sel units fr pos wit out = Ok (gs', out') ->
    (exists c' pos', EvenAt s L out' c' pos') /\ Forall (okix n s) out' /\ nwhole out' = nwhole out + units.
  Proof.
    induction fuel as [|fuel IH]; intros gs units fr pos out gs' out' c Hn Hcons Hev Hok Hl.
    - cbn [scatter_loop] in Hl. destruct ((units =? 0) && (fr =? 0)) eqn:E0; [|discriminate].
      inversion Hl; subst. apply andb_true_iff in E0. destruct E0 as [E1 _]. apply N.eqb_eq in E1. subst.
      split; [eauto|]. split; auto. lia.
    - destruct (N.eq_dec units 0) as [->|Hu].
      + apply scatter_frac_phase in Hl; auto. destruct Hl as [->|(F & -> & HfF & Hfr & HokF)].
        * split; [eauto|]. split; auto. lia.
        * split; [|split].
          -- exists c, pos. intros j g Hj. rewrite wc_app, wc_frac by congruence. rewrite N.add_0_r. auto.
          -- apply Forall_app; split; auto.
          -- rewrite nwhole_app, nwhole_cons, nwhole_nil. destruct (N.eqb_spec (ai_frac F) 0); [congruence|lia].
      + cbn [scatter_loop] in Hl.
        destruct (N.eqb_spec units 0) as [|_]; [congruence|]. cbn [andb] in Hl.
        destruct (match sel with Some s0 => get_at s0 pos | None => Ok pos end) as [gi| |] eqn:Egi; cbn [bind] in Hl; try discriminate.
        destruct (get_at gs gi) as [g| |] eqn:Eg; cbn [bind] in Hl; try discriminate.
        pose proof (sel_get _ _ _ _ Hn Egi Eg) as Hs.
        assert (Hrange : gi < N.of_nat n) by (apply get_at_range in Eg; unfold len in Eg; lia).
        rewrite (sel_mod gs Hn) in Hl.
        destruct (N.ltb_spec 0 units) as [_|Hle]; [|lia].
        pose proof (Hev _ _ Hs) as Hpos. rewrite N.ltb_irrefl in Hpos.
        pose proof (Hcons gi) as Hcgi. rewrite (lenidx_get _ _ _ Eg) in Hcgi.
        destruct (g_idx g) as [|i rest] eqn:Es.
        * unfold len in Hcgi. cbn [length] in Hcgi.
          destruct (even_step out out c pos gi Hs Hev) as [c' Hev']; [lia|auto|].
          eapply IH; eauto.
        * unfold len in Hcgi. cbn [length] in Hcgi.
          destruct (even_step out (out ++ [mkAidx i gi 0]) c pos gi Hs Hev) as [c' Hev'].
          { rewrite wc_app, wc_whole_same, N.eqb_refl. lia. }
          { intros g' Hg'. rewrite wc_app, wc_whole_same. destruct (N.eqb_spec gi g'); [congruence|lia]. }
          assert (Hcons1 : forall g', wc (out ++ [mkAidx i gi 0]) g' + lenidx (set_at gs gi (mkGroup rest (g_fr g))) g' = L g').
          { intros g'. destruct (N.eq_dec gi g') as [<-|Hne].
            - rewrite wc_app, wc_whole_same, N.eqb_refl, (lenidx_set_at_same _ _ _ _ Eg). cbn [g_idx]. unfold len. lia.
            - rewrite wc_app, wc_whole_same, lenidx_set_at_other by auto.
              destruct (N.eqb_spec gi g'); [congruence|]. rewrite N.add_0_r. auto. }
          assert (Hok1 : Forall (okix n s) (out ++ [mkAidx i gi 0])).
          { apply Forall_app. split; auto. constructor; [|constructor]. split; cbn [ai_group]; eauto. }
          destruct (IH _ _ _ _ _ _ _ c' (eq_trans (set_at_length _ _ _) Hn) Hcons1 Hev' Hok1 Hl) as (A & B & C).
          split; auto. split; auto. rewrite C, nwhole_app, nwhole_cons, nwhole_nil. cbn [ai_frac]. rewrite N.eqb_refl. lia.
  Qed.
End RoundRobin.

Lemma claim_scatter_even a gs sel wit gs' out :
  sinj (slist (length gs) sel) ->
  claim_scatter_from_groups a gs sel wit = Ok (gs', out) ->
  (exists c pos, EvenAt (slist (length gs) sel) (lenidx gs) out c pos)
  /\ Forall (okix (length gs) (slist (length gs) sel)) out
  /\ nwhole out = fst (split a).
Proof.
  intros Hinj Hc. unfold claim_scatter_from_groups in Hc. destruct (split a) as [units fr]. cbn [fst].
  destruct (scatter_loop (scatter_fuel gs sel) gs sel units fr 0 wit []) as [[gs1 raw]| |] eqn:El; cbn [bind] in Hc; try discriminate.
  inversion Hc; subst gs1 out. clear Hc.
  assert (Hc0 : forall g, wc [] g + lenidx gs g = lenidx gs g) by (intros g; rewrite wc_nil; lia).
  assert (He0 : EvenAt (slist (length gs) sel) (lenidx gs) [] 0 0).
  { intros j g Hj. rewrite wc_nil. destruct (N.ltb_spec j 0); lia. }
  destruct (scatter_units (length gs) sel wit (lenidx gs) Hinj _ _ _ _ _ _ _ _ 0 eq_refl Hc0 He0 (Forall_nil _) El)
    as ((c & pos & Hev) & Hok & Hn).
  pose proof (isort_perm aidx_le raw) as Hp.
  split; [|split].
  - exists c, pos. intros j g Hj. rewrite (wc_perm _ _ _ Hp). auto.
  - eapply Permutation_Forall; [apply Permutation_sym; exact Hp|auto].
  - rewrite (nwhole_perm _ _ Hp), Hn, nwhole_nil. lia.
Qed.


Theorem scatter_shape a gs wit gs' out :
  claim_scatter_from_groups a gs None wit = Ok (gs', out) ->
  len (filter (fun gi => negb (wc out gi =? 0)) (seqN 0 (length gs)))
  = N.min (fst (split a)) (len (filter (fun g => negb (len (g_idx g) =? 0)) gs)).
Proof.
  intros Hc. destruct (claim_scatter_even a gs None wit gs' out (sinj_seqN _) Hc) as ((c & pos & Hev) & Hok & Hn).
  cbn [slist] in *. set (n := length gs) in *.
  assert (Hin : forall j, In j (seqN 0 n) -> wc out j = N.min (if j <? pos then c + 1 else c) (lenidx gs j)).
  { intros j Hj. apply Hev. apply get_at_seqN_lt. apply in_seqN in Hj. lia. }
  assert (Hsum : fst (split a) = sumN (map (wc out) (seqN 0 n))).
  { rewrite <- Hn. apply nwhole_sum_wc. eapply Forall_impl; [|exact Hok]. intros ix [_ H]. exact H. }
  assert (Hne : len (filter (fun g => negb (len (g_idx g) =? 0)) gs)
                = len (filter (fun j => negb (lenidx gs j =? 0)) (seqN 0 n))).
  { apply count_positions. intros j x Hx. rewrite lenidx_nth. unfold nat_of.
    replace (N.to_nat (0 + N.of_nat j)) with j by lia. rewrite Hx. auto. }
  rewrite Hne, Hsum.
  pose proof (sum_ge_count (wc out) (seqN 0 n)) as Hge.
  destruct (N.eq_dec c 0) as [->|Hc0].
  - (* first round: one index per touched group *)
    assert (Hle1 : forall j, In j (seqN 0 n) -> wc out j <= 1).
    { intros j Hj. rewrite (Hin j Hj). destruct (j <? pos); lia. }
    rewrite (sum_eq_count _ _ Hle1).
    assert (Hle : len (filter (fun j => negb (wc out j =? 0)) (seqN 0 n))
                  <= len (filter (fun j => negb (lenidx gs j =? 0)) (seqN 0 n))).
    { apply count_le. intros j Hj. rewrite (Hin j Hj).
      destruct (j <? pos), (N.eqb_spec (lenidx gs j) 0), (N.eqb_spec (N.min (0 + 1) (lenidx gs j)) 0), (N.eqb_spec (N.min 0 (lenidx gs j)) 0);
        cbn [negb]; auto; lia. }
    lia.
  - (* later rounds: every non-empty group is touched *)
    assert (Heq : len (filter (fun j => negb (wc out j =? 0)) (seqN 0 n))
                  = len (filter (fun j => negb (lenidx gs j =? 0)) (seqN 0 n))).
    { apply count_ext. intros j Hj. rewrite (Hin j Hj).
      destruct (j <? pos), (N.eqb_spec (lenidx gs j) 0), (N.eqb_spec (N.min (c + 1) (lenidx gs j)) 0), (N.eqb_spec (N.min c (lenidx gs j)) 0);
        cbn [negb]; auto; lia. }
    lia.
Qed.

(** The monitor scatter-shape as a theorem: for EVERY group pool and EVERY scatter request, whatever
    ResourcePool::claim_resources returns touches min(units, number of non-empty groups) groups. *)
Theorem C16_scatter_shape : forall before e a wit full gs p' ra,
  e_req e = Req Scatter a ->
  nth_error before (nat_of (e_res e)) = Some (PGroups full gs) ->
  pool_claim (PGroups full gs) (e_res e) (e_req e) wit = Ok (p', ra) ->
  scatter_ok before e ra = true.
Proof.
  intros before e a wit full gs p' ra He Hn Hc. unfold scatter_ok. rewrite He in *. rewrite Hn.
  cbn [pool_claim] in Hc.
  destruct (claim_scatter_from_groups a gs None wit) as [[gs' out]| |] eqn:E; cbn [bind] in Hc; try discriminate.
  inversion Hc; subst. apply N.eqb_eq.
  rewrite <- (scatter_shape _ _ _ _ _ E). apply count_ext. intros j _. rewrite whole_count_wc. reflexivity.
Qed.


Theorem compact_even a gs mask wit gs' out :
  NoDup mask ->
  claim_scatter_from_groups a gs (Some mask) wit = Ok (gs', out) ->
  forall g h, In g (map ai_group out) -> In h (map ai_group out) ->
    wc out h <= wc out g + 1
    \/ exists gr, nth_error gs (nat_of g) = Some gr /\ wc out g = len (g_idx gr).
Proof.
  intros Hnd Hc g h Hg Hh.
  destruct (claim_scatter_even a gs (Some mask) wit gs' out (sinj_nodup _ Hnd) Hc) as ((c & pos & Hev) & Hok & Hn).
  cbn [slist] in *. rewrite Forall_forall in Hok.
  apply in_map_iff in Hg. destruct Hg as (xg & <- & Hxg). destruct (Hok _ Hxg) as [[jg Hjg] Hrg].
  apply in_map_iff in Hh. destruct Hh as (xh & <- & Hxh). destruct (Hok _ Hxh) as [[jh Hjh] Hrh].
  pose proof (Hev _ _ Hjg) as Eg. pose proof (Hev _ _ Hjh) as Eh.
  destruct (N.le_gt_cases (wc out (ai_group xh)) (wc out (ai_group xg) + 1)) as [Hle|Hgt]; [left; auto|right].
  rewrite lenidx_nth in Eg.
  destruct (nth_error gs (nat_of (ai_group xg))) as [gr|] eqn:En.
  - exists gr. split; auto. destruct (jg <? pos), (jh <? pos); lia.
  - exfalso. apply nth_error_None in En. unfold nat_of in En. lia.
Qed.

(** The monitor compact-shape as a theorem: for EVERY group pool, EVERY compact / compact! request and EVERY
    duplicate-free group selection (the solver's answers are strictly increasing lists of group ids),
    whatever ResourcePool::claim_resources_with_group_mask returns is spread evenly: the numbers of whole
    indices taken from two of the groups used differ by more than one only if the smaller one was drained. *)
Theorem C16_compact_shape : forall before e a mask wit full gs p' ra,
  e_req e = Req Compact a \/ e_req e = Req ForceCompact a ->
  NoDup mask ->
  nth_error before (nat_of (e_res e)) = Some (PGroups full gs) ->
  claim_with_group_mask (PGroups full gs) (e_res e) (e_req e) mask wit = Ok (p', ra) ->
  compact_even_ok before e ra = true.
Proof.
  intros before e a mask wit full gs p' ra He Hnd Hn Hc.
  assert (Hc' : exists gs' out, claim_scatter_from_groups a gs (Some mask) wit = Ok (gs', out) /\ ra_indices ra = out).
  { destruct He as [He|He]; rewrite He in Hc; cbn [claim_with_group_mask] in Hc;
      destruct (claim_scatter_from_groups a gs (Some mask) wit) as [[gs' out]| |]; cbn [bind] in Hc; try discriminate;
      inversion Hc; subst; eauto. }
  destruct Hc' as (gs' & out & E & Hout).
  assert (Hgoal : forallb (fun g => forallb (fun h =>
            (whole_count ra h <=? whole_count ra g + 1)
            || match nth_error gs (nat_of g) with Some gr => whole_count ra g =? len (g_idx gr) | None => false end)
            (dedup (map ai_group (ra_indices ra)))) (dedup (map ai_group (ra_indices ra))) = true).
  { apply forallb_forall. intros g Hg. apply forallb_forall. intros h Hh.
    rewrite in_dedup in Hg, Hh. rewrite !whole_count_wc, Hout in *.
    destruct (compact_even _ _ _ _ _ _ Hnd E g h Hg Hh) as [Hle|(gr & Hgr & Heq)].
    - apply orb_true_iff. left. apply N.leb_le. auto.
    - apply orb_true_iff. right. rewrite Hgr. apply N.eqb_eq. auto. }
  unfold compact_even_ok. destruct He as [He|He]; rewrite He, Hn; exact Hgoal.
Qed.

Lemma increasing_nodup m : forall lo n, strictly_increasing_below m lo n = true -> NoDup m /\ Forall (fun g => lo <= g) m.
Proof.
  induction m as [|g m IH]; intros lo n H; [split; constructor|].
  cbn [strictly_increasing_below] in H. apply andb_true_iff in H. destruct H as [H H3]. apply andb_true_iff in H. destruct H as [H1 H2].
  destruct (IH _ _ H3) as [Hnd Hge]. split.
  - constructor; auto. intros Hin. rewrite Forall_forall in Hge. specialize (Hge _ Hin). lia.
  - constructor; [lia|]. eapply Forall_impl; [|exact Hge]. intros x Hx. cbv beta in Hx. lia.
Qed.

(** non-vacuity: scatter of 3.5 units over the groups [2 free; 0 free; 3 free + a partly used index]:
    2 = min(3, 2) groups are touched; compact of 5 units over groups 0 and 2: group 0 is drained (2), group 2 gives 3 *)
Example scatter_shape_example :
  let gs := [mkGroup [1; 0] []; mkGroup [] []; mkGroup [6; 5; 4] [(7, 6000)]] in
  let p := PGroups (mk_amount 6 0) gs in
  exists p' ra,
    pool_claim p 0 (Req Scatter 35000) (Some 7) = Ok (p', ra)
    /\ ra_indices ra = [mkAidx 0 0 0; mkAidx 1 0 0; mkAidx 6 2 0; mkAidx 7 2 5000]
    /\ scatter_ok [p] (mkEntry 0 (Req Scatter 35000)) ra = true.
Proof. eexists _, _. split; [vm_compute; reflexivity|]. vm_compute. repeat split. Qed.

Example compact_shape_example :
  let gs := [mkGroup [1; 0] []; mkGroup [] []; mkGroup [6; 5; 4] [(7, 6000)]] in
  let p := PGroups (mk_amount 6 0) gs in
  exists p' ra,
    claim_with_group_mask p 0 (Req Compact 50000) [0; 2] None = Ok (p', ra)
    /\ NoDup [0; 2]
    /\ whole_count ra 0 = 2 /\ whole_count ra 2 = 3
    /\ compact_even_ok [p] (mkEntry 0 (Req Compact 50000)) ra = true.
Proof.
  eexists _, _. split; [vm_compute; reflexivity|]. vm_compute. split; [|repeat split].
  constructor; [intros [H|[]]; discriminate|]. constructor; [intros []|constructor].
Qed.

Print Assumptions C16_scatter_shape.
Print Assumptions C16_compact_shape.
