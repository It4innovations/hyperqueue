(** C04: the invariant over all alloc / release / is_enabled sequences, and the theorems over all reachable
    states of the allocator model read off it. *)
From Coq Require Import Permutation.
From HQ Require Import Base.Prelude Gen.Consts Alloc.Model Alloc.Spec Alloc.Lemmas Alloc.Group Alloc.Pool Alloc.Inv Alloc.Claims.
Require Import ZifyBool.
Open Scope N_scope.

Lemma GsI_perm us gs H H' : Permutation H H' -> GsI us gs (hsum H) (hfany H) -> GsI us gs (hsum H') (hfany H').
Proof. intros P. apply GsI_ext; intros; [apply hsum_perm | apply hfany_perm]; auto. Qed.

Lemma PoolCore_perm p0 p H H' taken : Permutation H H' -> PoolCore p0 p H taken -> PoolCore p0 p H' taken.
Proof.
  intros P (A & B & C). split; auto. split; auto. destruct p.
  1-3: destruct C as [C1 C2]; split; [eapply GsI_perm; eauto | eapply Permutation_Forall; eauto].
  destruct C as [C1 C2]. subst. apply Permutation_nil in P. subst. auto.
Qed.

(** the pools at every resource id satisfy the core invariant for holdings [Hf r] / taken [Tf r] *)
Definition PoolsCore (pools0 pools : list pool) (Hf : N -> list aidx) (Tf : N -> N) : Prop :=
  length pools = length pools0
  /\ forall r p0 p, r < len pools0 -> nth_error pools0 (nat_of r) = Some p0 -> nth_error pools (nat_of r) = Some p ->
                    PoolCore p0 p (Hf r) (Tf r).

Lemma PoolsCore_ext pools0 pools Hf Tf Hf' Tf' :
  (forall r, Permutation (Hf r) (Hf' r)) -> (forall r, Tf r = Tf' r) ->
  PoolsCore pools0 pools Hf Tf -> PoolsCore pools0 pools Hf' Tf'.
Proof.
  intros E1 E2 [L H]. split; auto. intros r p0 p Hr H0 H1. rewrite <- E2. eapply PoolCore_perm; eauto.
Qed.

Definition one_ra (ra : ralloc) (r : N) : list aidx := if ra_res ra =? r then ra_indices ra else [].
Definition one_sum (p : pool) (ra : ralloc) (r : N) : N := if ra_res ra =? r then (if pool_is_sum p then ra_amount ra else 0) else 0.

Lemma PoolsCore_claim pools0 pools Hf Tf rid p p' rq ra :
  PoolsCore pools0 pools Hf Tf -> get_at pools rid = Ok p -> claim_ok p p' rid rq ra = true ->
  PoolsCore pools0 (set_at pools rid p') (fun r => Hf r ++ one_ra ra r) (fun r => Tf r + one_sum p ra r).
Proof.
  intros [L H] Hg Hok. pose proof (claim_ok_inv _ _ _ _ _ Hok) as (Hres & _).
  apply get_at_ok in Hg. destruct Hg as [Hlt Hnth].
  split; [rewrite set_at_length; auto|].
  intros r p0 q Hr H0 H1. rewrite nth_error_set_at in H1.
  destruct (N.ltb_spec rid (len pools)); [|lia]. simpl in H1. unfold one_ra, one_sum. rewrite Hres.
  destruct (Nat.eqb_spec (nat_of rid) (nat_of r)) as [E|E].
  - apply nat_of_inj in E. subst r. inversion H1; subst q. rewrite N.eqb_refl.
    eapply claim_PoolCore; eauto.
  - destruct (N.eqb_spec rid r); [subst; congruence|]. rewrite app_nil_r, N.add_0_r. eauto.
Qed.

Lemma flat_al_app a b r : flat_al (a ++ b) r = flat_al a r ++ flat_al b r.
Proof. unfold flat_al. apply flat_map_app'. Qed.
Lemma flat_al_one ra r : flat_al [ra] r = one_ra ra r.
Proof. unfold flat_al, one_ra. simpl. rewrite app_nil_r. auto. Qed.
Lemma alloc_sum_app a b r : alloc_sum_amount (a ++ b) r = alloc_sum_amount a r + alloc_sum_amount b r.
Proof. unfold alloc_sum_amount. rewrite map_app, sumN_app. auto. Qed.

(** bookkeeping of what the allocation under construction takes from sum pools *)
Definition sum_taken (pools0 : list pool) (al : allocation) (r : N) : N :=
  match nth_error pools0 (nat_of r) with
  | Some p0 => if pool_is_sum p0 then alloc_sum_amount al r else 0
  | None => 0
  end.

Lemma same_kind_sum p0 p : same_kind p0 p = true -> pool_is_sum p = pool_is_sum p0.
Proof. destruct p0, p; simpl; auto; discriminate. Qed.

Lemma one_sum_taken pools0 pools Hf Tf rid p ra r :
  PoolsCore pools0 pools Hf Tf -> get_at pools rid = Ok p -> ra_res ra = rid ->
  one_sum p ra r = sum_taken pools0 [ra] r.
Proof.
  intros [L H] Hg Hres. apply get_at_ok in Hg. destruct Hg as [Hlt Hnth].
  unfold one_sum, sum_taken, alloc_sum_amount. cbn [map]. rewrite sumN_cons, sumN_nil, Hres.
  destruct (N.eqb_spec rid r).
  - subst r. destruct (nth_error pools0 (nat_of rid)) as [p0|] eqn:E0.
    + destruct (H rid p0 p) as (K & _); auto; [unfold len in *; lia|].
      rewrite (same_kind_sum _ _ K). destruct (pool_is_sum p0); lia.
    + apply nth_error_None in E0. unfold len, nat_of in *. lia.
  - destruct (nth_error pools0 (nat_of r)); auto. destruct (pool_is_sum p0); auto.
Qed.

Lemma sum_taken_app pools0 a b r : sum_taken pools0 (a ++ b) r = sum_taken pools0 a r + sum_taken pools0 b r.
Proof.
  unfold sum_taken. destruct (nth_error pools0 (nat_of r)); auto. destruct (pool_is_sum p); auto. apply alloc_sum_app.
Qed.

Lemma PoolsCore_nil pools0 pools Hf Tf :
  PoolsCore pools0 pools (fun r => Hf r ++ flat_al [] r) (fun r => Tf r + sum_taken pools0 [] r) <-> PoolsCore pools0 pools Hf Tf.
Proof.
  split; apply PoolsCore_ext; intros r; cbv beta; unfold flat_al, sum_taken, alloc_sum_amount; simpl; rewrite ?app_nil_r; auto;
    (destruct (nth_error pools0 (nat_of r)) as [p|]; [destruct (pool_is_sum p)|]); rewrite ?sumN_nil; lia.
Qed.

Section Claims.
  Variable pools0 : list pool.
  Variables (Hl : N -> list aidx) (Tl : N -> N).   (* holdings of the live allocations *)

  Definition Acc (pools : list pool) (acc : allocation) : Prop :=
    PoolsCore pools0 pools (fun r => Hl r ++ flat_al acc r) (fun r => Tl r + sum_taken pools0 acc r)
    /\ Forall (fun ra => ra_res ra < len pools0) acc.

  Lemma Acc_step pools acc rid p p' rq ra :
    Acc pools acc -> get_at pools rid = Ok p -> claim_ok p p' rid rq ra = true ->
    Acc (set_at pools rid p') (acc ++ [ra]).
  Proof.
    intros [HA HB] Hg Hok. pose proof (claim_ok_inv _ _ _ _ _ Hok) as (Hres & _).
    pose proof Hg as Hg'. apply get_at_ok in Hg'. destruct Hg' as [Hlt _].
    assert (Hlen : len pools = len pools0) by (destruct HA as [L _]; unfold len; rewrite L; auto).
    split.
    - eapply PoolsCore_ext; [| |exact (PoolsCore_claim _ _ _ _ _ _ _ _ _ HA Hg Hok)]; intros r; cbv beta.
      + rewrite flat_al_app, flat_al_one, app_assoc. auto.
      + rewrite sum_taken_app, (one_sum_taken pools0 pools _ _ rid p ra r HA Hg Hres). lia.
    - apply Forall_app. split; auto. constructor; auto. rewrite Hres. lia.
  Qed.

  Lemma Acc_perm pools acc acc' : Permutation acc acc' -> Acc pools acc -> Acc pools acc'.
  Proof.
    intros P [HA HB]. split; [|eapply Permutation_Forall; eauto].
    eapply PoolsCore_ext; [| |exact HA]; intros r; cbv beta.
    - apply Permutation_app_head. unfold flat_al. apply Permutation_flat_map. auto.
    - f_equal. unfold sum_taken. destruct (nth_error pools0 (nat_of r)); auto. destruct (pool_is_sum p); auto.
      unfold alloc_sum_amount. apply sumN_map_perm; auto.
  Qed.
End Claims.

Lemma release_single_groups l : forall g,
  Forall (fun ix => ai_group ix = 0) l ->
  release_indices_groups [g] l = match release_indices_single g l with Ok g' => Ok [g'] | Panic s => Panic s | Disabled => Disabled end.
Proof.
  induction l as [|ix l IH]; intros g Hf; [reflexivity|].
  inversion Hf as [|? ? Hg Hf']; subst. cbn [release_indices_groups release_indices_single].
  rewrite Hg, get_at_single, N.eqb_refl. cbn [negb bind].
  destruct (release_index g ix); cbn [bind]; auto.
  change (set_at [g] 0 a) with [a]. apply IH; auto.
Qed.

Lemma release_PoolCore p0 p H' taken ra p' :
  PoolCore p0 p (H' ++ ra_indices ra) (taken + (if pool_is_sum p then ra_amount ra else 0)) ->
  pool_release p ra = Ok p' -> PoolCore p0 p' H' taken.
Proof.
  intros (K & F & C) Hr. destruct p as [|f g|f gs|f free]; simpl in Hr; try discriminate.
  - destruct C as [HG Hb]. apply Forall_app in Hb. destruct Hb as [Hb1 Hb2]. simpl pool_groups in *.
    assert (HG' : GsI (pool_us p0) [g] (hsum (H' ++ rev (ra_indices ra))) (hfany (H' ++ rev (ra_indices ra)))).
    { eapply GsI_perm; [|eauto]. apply Permutation_app_head. apply Permutation_rev. }
    destruct (release_list _ _ _ _ HG') as (gs' & A & B & L).
    { apply Forall_rev. auto. }
    rewrite release_single_groups in A.
    2:{ apply Forall_rev. rewrite Forall_forall in *. intros ix Hin. destruct (Hb2 ix Hin) as [_ X]. unfold len in X; simpl in X. lia. }
    destruct (release_indices_single g (rev (ra_indices ra))) as [g'| |]; simpl in Hr; try discriminate.
    inversion Hr; subst p'. inversion A; subst gs'. split; [auto|]. split; [auto|]. simpl. split; [auto|].
    rewrite Forall_forall in *; intros ix Hin; destruct (Hb1 ix Hin); unfold len in *; simpl in *; auto.
  - destruct C as [HG Hb]. apply Forall_app in Hb. destruct Hb as [Hb1 Hb2]. simpl pool_groups in *.
    assert (HG' : GsI (pool_us p0) gs (hsum (H' ++ rev (ra_indices ra))) (hfany (H' ++ rev (ra_indices ra)))).
    { eapply GsI_perm; [|eauto]. apply Permutation_app_head. apply Permutation_rev. }
    destruct (release_list _ _ _ _ HG') as (gs' & A & B & L).
    { apply Forall_rev. auto. }
    rewrite A in Hr. simpl in Hr. inversion Hr; subst p'. split; [auto|]. split; [auto|]. simpl. split; [auto|].
    assert (len gs' = len gs) by (unfold len; rewrite L; auto).
    rewrite Forall_forall in *. intros ix Hin. destruct (Hb1 ix Hin). split; auto. lia.
  - destruct C as [C1 C2]. apply app_eq_nil in C2. destruct C2 as [C2 C3].
    destruct (N.ltb_spec f (free + ra_amount ra)); try discriminate.
    destruct (len (ra_indices ra) =? 0); simpl in Hr; try discriminate. inversion Hr; subst p'.
    split; [auto|]. split; [auto|]. simpl in *. split; [lia|auto].
Qed.

(** returning [ra :: al]: the pool of [ra], with the indices of [ra] last in its holdings ... *)
Lemma release_reorder pools0 pools Hb Tb ra al p0 p :
  PoolsCore pools0 pools (fun r => Hb r ++ flat_al (ra :: al) r) (fun r => Tb r + sum_taken pools0 (ra :: al) r) ->
  nth_error pools0 (nat_of (ra_res ra)) = Some p0 -> get_at pools (ra_res ra) = Ok p ->
  PoolCore p0 p ((Hb (ra_res ra) ++ flat_al al (ra_res ra)) ++ ra_indices ra)
    (Tb (ra_res ra) + sum_taken pools0 al (ra_res ra) + (if pool_is_sum p then ra_amount ra else 0)).
Proof.
  intros [L HP] H0 Hg. apply get_at_ok in Hg. destruct Hg as [Hlt Hnth].
  assert (Hr0 : ra_res ra < len pools0) by (unfold len in *; lia).
  specialize (HP _ _ _ Hr0 H0 Hnth). cbv beta in HP.
  eapply PoolCore_perm with (H := Hb (ra_res ra) ++ flat_al (ra :: al) (ra_res ra)).
  - change (ra :: al) with ([ra] ++ al). rewrite flat_al_app, flat_al_one. unfold one_ra. rewrite N.eqb_refl.
    rewrite <- app_assoc. apply Permutation_app_head. apply Permutation_app_comm.
  - destruct HP as (K & F & C). split; auto. split; auto.
    change (ra :: al) with ([ra] ++ al) in C. rewrite sum_taken_app in C.
    replace (Tb (ra_res ra) + sum_taken pools0 al (ra_res ra) + (if pool_is_sum p then ra_amount ra else 0))
      with (Tb (ra_res ra) + (sum_taken pools0 [ra] (ra_res ra) + sum_taken pools0 al (ra_res ra))); auto.
    unfold sum_taken at 1. rewrite H0. rewrite <- (same_kind_sum _ _ K).
    unfold alloc_sum_amount. cbn [map]. rewrite sumN_cons, sumN_nil, N.eqb_refl. destruct (pool_is_sum p); lia.
Qed.

(** ... the other pools hold nothing of [ra] *)
Lemma release_other pools0 ra al r : ra_res ra <> r ->
  flat_al (ra :: al) r = flat_al al r /\ sum_taken pools0 (ra :: al) r = sum_taken pools0 al r.
Proof.
  intros Hne. change (ra :: al) with ([ra] ++ al). rewrite flat_al_app, flat_al_one, sum_taken_app.
  unfold one_ra. destruct (N.eqb_spec (ra_res ra) r); [contradiction|]. split; [reflexivity|].
  replace (sum_taken pools0 [ra] r) with 0; [reflexivity|].
  unfold sum_taken, alloc_sum_amount. cbn [map]. rewrite sumN_cons, sumN_nil.
  destruct (nth_error pools0 (nat_of r)); auto. destruct (pool_is_sum p); auto.
  destruct (N.eqb_spec (ra_res ra) r); [contradiction|lia].
Qed.

Lemma PoolsCore_release pools0 pools Hb Tb ra al p p' :
  PoolsCore pools0 pools (fun r => Hb r ++ flat_al (ra :: al) r) (fun r => Tb r + sum_taken pools0 (ra :: al) r) ->
  get_at pools (ra_res ra) = Ok p -> pool_release p ra = Ok p' ->
  PoolsCore pools0 (set_at pools (ra_res ra) p') (fun r => Hb r ++ flat_al al r) (fun r => Tb r + sum_taken pools0 al r).
Proof.
  intros HP Eg Er. pose proof (proj1 (proj1 (get_at_ok _ _ _) Eg)) as Hlt.
  split; [rewrite set_at_length; apply HP|].
  intros r p0 q Hr0 H0 H1. rewrite nth_error_set_at in H1.
  destruct (N.ltb_spec (ra_res ra) (len pools)); [|lia]. simpl in H1.
  destruct (Nat.eqb_spec (nat_of (ra_res ra)) (nat_of r)) as [E|E].
  - apply nat_of_inj in E. subst r. inversion H1; subst q.
    eapply release_PoolCore; [|eauto]. eapply release_reorder; eauto.
  - destruct (release_other pools0 ra al r) as [E1 E2]; [intros X; apply E; rewrite X; reflexivity|].
    destruct HP as [_ HP]. specialize (HP _ _ _ Hr0 H0 H1). cbv beta in HP. rewrite E1, E2 in HP. exact HP.
Qed.

Lemma release_helper_core pools0 al : forall pools Hb Tb pools',
  PoolsCore pools0 pools (fun r => Hb r ++ flat_al al r) (fun r => Tb r + sum_taken pools0 al r) ->
  release_helper pools al = Ok pools' -> PoolsCore pools0 pools' Hb Tb.
Proof.
  induction al as [|ra al IH]; intros pools Hb Tb pools' HP Hr; simpl in Hr.
  - inversion Hr; subst. apply PoolsCore_nil. exact HP.
  - destruct (get_at pools (ra_res ra)) as [p| |] eqn:Eg; simpl in Hr; try discriminate.
    destruct (pool_release p ra) as [p'| |] eqn:Er; simpl in Hr; try discriminate.
    eapply IH; [|eauto]. eapply PoolsCore_release; eauto.
Qed.

Definition HL (live : list allocation) (r : N) : list aidx := flat_live live r.
Definition TL (pools0 : list pool) (live : list allocation) (r : N) : N := sumN (map (fun al => sum_taken pools0 al r) live).

Definition CoreInv (pools0 : list pool) (s : sys) : Prop :=
  PoolsCore pools0 (a_pools (s_alloc s)) (HL (s_live s)) (TL pools0 (s_live s)).

Lemma HL_app live al r : HL (live ++ [al]) r = HL live r ++ flat_al al r.
Proof. unfold HL, flat_live. rewrite flat_map_app'. simpl. rewrite app_nil_r. auto. Qed.
Lemma TL_app pools0 live al r : TL pools0 (live ++ [al]) r = TL pools0 live r + sum_taken pools0 al r.
Proof. unfold TL. rewrite map_app, sumN_app. cbn [map]. rewrite sumN_cons, sumN_nil. lia. Qed.

Lemma claim_resources_core pools0 a live rq w pools' al :
  PoolsCore pools0 (a_pools a) (HL live) (TL pools0 live) ->
  claim_resources a rq w = Ok (pools', al) ->
  PoolsCore pools0 pools' (HL (live ++ [al])) (TL pools0 (live ++ [al])).
Proof.
  intros HP Hc. destruct (claim_resources_claims _ _ _ _ _ Hc) as (trd & trc & ms & Htr & Hperm & _).
  assert (HA0 : Acc pools0 (HL live) (TL pools0 live) (a_pools a) [])
    by (split; [apply PoolsCore_nil; exact HP|constructor]).
  apply (claims_fold (Acc pools0 (HL live) (TL pools0 live)) w (trd ++ trc)) with (acc := []) in Htr; auto using incl_refl.
  2:{ intros ps acc c ps' _ HA (p & p' & Hg & -> & Hok & _). eapply Acc_step; eauto. }
  destruct (Acc_perm _ _ _ _ _ _ Hperm Htr) as [HX _].
  eapply PoolsCore_ext; [| |exact HX]; intros r; cbv beta; rewrite ?HL_app, ?TL_app; auto.
Qed.

Lemma flat_live_remove live k al r :
  nth_error live k = Some al -> Permutation (flat_live live r) (flat_live (remove_nth live k) r ++ flat_al al r).
Proof.
  revert k; induction live as [|x live IH]; intros [|k] H; simpl in *; try discriminate.
  - inversion H; subst. apply Permutation_app_comm.
  - rewrite <- app_assoc. apply Permutation_app_head. auto.
Qed.

Lemma TL_remove pools0 live k al r :
  nth_error live k = Some al -> TL pools0 live r = TL pools0 (remove_nth live k) r + sum_taken pools0 al r.
Proof.
  unfold TL. revert k; induction live as [|x live IH]; intros [|k] H; simpl in *; try discriminate.
  - inversion H; subst. rewrite sumN_cons. lia.
  - rewrite !sumN_cons. rewrite (IH k H). lia.
Qed.

Lemma step_core pools0 s o s' out : CoreInv pools0 s -> step s o = Ok (s', out) -> CoreInv pools0 s'.
Proof.
  unfold CoreInv. intros HI Hs.
  destruct (step_inv _ _ _ _ Hs) as [(rq & w & ok & yard & _ & -> & _)|[(rq & w & yard & pools & al & free & _ & _ & _ & Ec & _ & ->)|(k & al & free & pools & _ & _ & En & _ & Er & ->)]];
    cbn [s_alloc s_live a_pools].
  - exact HI.
  - eapply claim_resources_core; [|exact Ec]. exact HI.
  - eapply release_helper_core; [|exact Er].
    eapply PoolsCore_ext; [| |exact HI]; intros r; cbv beta.
    + unfold HL. apply flat_live_remove; auto.
    + apply TL_remove; auto.
Qed.

Lemma run_core pools0 ops : forall s s', CoreInv pools0 s -> run s ops = Ok s' -> CoreInv pools0 s'.
Proof.
  induction ops as [|o ops IH]; intros s s' HI Hr; simpl in Hr.
  - inversion Hr; subst; auto.
  - destruct (step s o) as [[s1 out]| |] eqn:Es; simpl in Hr; try discriminate.
    eapply IH; [|eauto]. eapply step_core; eauto.
Qed.

Definition fresh_group (g : group) : Prop := g_fr g = [] /\ NoDup (g_idx g).
Definition fresh (p : pool) : Prop :=
  match p with PSum f x => x = f | _ => Forall fresh_group (pool_groups p) end.

Lemma seqN_ge s n x : In x (seqN s n) -> s <= x.
Proof. revert s; induction n; simpl; intros s H; [contradiction|]. destruct H as [H|H]; [lia|]. apply IHn in H. lia. Qed.
Lemma seqN_nodup s n : NoDup (seqN s n).
Proof.
  revert s; induction n; simpl; intros s; constructor; auto.
  intros H. apply seqN_ge in H. lia.
Qed.
Lemma nodup_rev (l : list N) : NoDup l -> NoDup (rev l).
Proof. intros H. eapply Permutation_NoDup; [apply Permutation_rev|auto]. Qed.

Lemma groups_from_fresh sizes : forall s, Forall fresh_group (groups_from sizes s).
Proof.
  induction sizes; simpl; intros s; constructor; auto.
  split; simpl; auto. apply nodup_rev, seqN_nodup.
Qed.

Lemma pool_new_fresh k p : pool_new k = Some p -> fresh p.
Proof.
  destruct k; simpl.
  - destruct (nodupb labels); intros H; inversion H; subst. simpl. constructor; auto.
    split; simpl; auto. apply nodup_rev, seqN_nodup.
  - intros H; inversion H; subst. simpl. constructor; auto. split; simpl; auto. apply nodup_rev, seqN_nodup.
  - destruct (nodupb (concat groups)); intros H; inversion H; subst. simpl. apply groups_from_fresh.
  - intros H; inversion H; subst. simpl. auto.
Qed.

(** ResourceAllocator::new: every pool is PEmpty or made by ResourcePool::new, the summary of the free resources
    and that of all resources are both computed from the pools, the cache is empty *)
Lemma init_inv d s0 : init d = Ok s0 ->
  exists pools ws,
    s0 = mkSys (mkAllocator pools (map concise_state pools) ws [] (map concise_state pools)) []
    /\ new_weights (d_items d) (d_coupling d) = Ok ws
    /\ forall P : pool -> Prop, P PEmpty -> (forall k p, pool_new k = Some p -> P p) -> Forall P pools.
Proof.
  unfold init, allocator_new. intros H.
  destruct (existsb _ (d_items d)); cbn [bind] in H; try discriminate.
  destruct (max_rid (d_items d)) as [mx|]; cbn [bind] in H; try discriminate.
  destruct (fill_pools _ (d_items d)) as [pools| |] eqn:Ef; cbn [bind] in H; try discriminate.
  destruct (new_weights (d_items d) (d_coupling d)) as [ws| |] eqn:Ew; cbn [bind] in H; try discriminate.
  inversion H; subst. exists pools, ws. split; [reflexivity|]. split; [reflexivity|]. intros P HE HN.
  assert (H0 : Forall P (repeat PEmpty (S (nat_of mx)))) by (apply Forall_forall; intros x Hx; apply repeat_spec in Hx; subst; exact HE).
  revert Ef H0. generalize (repeat PEmpty (S (nat_of mx))). clear -HN.
  induction (d_items d) as [|[r k] items IH]; simpl; intros ps Ef H0.
  - inversion Ef; subst; auto.
  - destruct (pool_new k) eqn:E; try discriminate. eapply IH; [exact Ef|]. apply Forall_set_at; eauto.
Qed.

Lemma init_fresh d s0 : init d = Ok s0 -> Forall fresh (a_pools (s_alloc s0)).
Proof.
  intros Hi. destruct (init_inv _ _ Hi) as (pools & ws & -> & _ & HP). apply HP; [constructor|apply pool_new_fresh].
Qed.

Lemma fresh_group_GI g gi : fresh_group g -> GI (g_idx g) g (hsum [] gi) (hfany [] gi).
Proof.
  intros [Hfr Hnd]. split.
  - split; [auto|]. split; [rewrite Hfr; apply NoDup_nil|]. split.
    + intros i _. rewrite Hfr. reflexivity.
    + intros i f. rewrite Hfr. simpl. discriminate.
  - split; [|split].
    + intros i Hi. rewrite group_free_in by auto. rewrite hsum_nil. lia.
    + intros i Hi. rewrite Hfr. simpl. repeat split; auto.
    + intros i. rewrite Hfr. simpl. split; [discriminate|congruence].
Qed.

Lemma fresh_GsI gs : Forall fresh_group gs -> GsI (map g_idx gs) gs (hsum []) (hfany []).
Proof.
  intros Hf. split; [rewrite map_length; auto|].
  intros gi u gg Hu Hg Hlt. rewrite nth_error_map, Hg in Hu. inversion Hu; subst u.
  apply fresh_group_GI. eapply Forall_nth; eauto.
Qed.

Lemma fresh_core p : fresh p -> PoolCore p p [] 0.
Proof.
  intros Hf. split; [destruct p; auto|]. split; auto.
  destruct p; simpl in Hf.
  - split; [apply (fresh_GsI []); auto | apply Forall_nil].
  - split; [apply (fresh_GsI [g]); auto | apply Forall_nil].
  - split; [apply (fresh_GsI gs); auto | apply Forall_nil].
  - subst. split; auto. lia.
Qed.

Lemma init_core d s0 : init d = Ok s0 -> CoreInv (a_pools (s_alloc s0)) s0 /\ s_live s0 = [].
Proof.
  intros Hi. pose proof (init_fresh _ _ Hi) as Hfr. destruct (init_inv _ _ Hi) as (pools & ws & -> & _). simpl in *.
  split; auto. split; auto. intros r p0 p Hr H0 H1. simpl in *. assert (p0 = p) by congruence. subst p0.
  unfold HL, TL. simpl. rewrite sumN_nil. apply fresh_core. eapply Forall_nth; eauto.
Qed.

Theorem reachable_core d s0 ops s :
  init d = Ok s0 -> run s0 ops = Ok s -> CoreInv (a_pools (s_alloc s0)) s.
Proof. intros Hi Hr. destruct (init_core _ _ Hi) as [HI _]. eapply run_core; eauto. Qed.

Lemma TL_sum pools0 live r f x :
  nth_error pools0 (nat_of r) = Some (PSum f x) -> TL pools0 live r = live_sum_amount live r.
Proof.
  intros H. unfold TL, live_sum_amount. f_equal. apply map_ext. intros al. unfold sum_taken. rewrite H. auto.
Qed.

Lemma hsum_zero_group H g i n :
  Forall (fun ix => ai_frac ix < FPU /\ ai_group ix < n) H -> n <= g -> hsum H g i = 0.
Proof.
  intros Hf Hle. unfold hsum. apply sumN_map_zero. intros ix Hin.
  rewrite Forall_forall in Hf. destruct (Hf ix Hin). destruct (N.eqb_spec (ai_group ix) g); [lia|auto].
Qed.

(** the key reading: for every index of the worker, free + held = 100 %; nothing else is held *)
Lemma core_conserved pools0 s r p0 :
  CoreInv pools0 s -> r < len pools0 -> nth_error pools0 (nat_of r) = Some p0 ->
  forall g i,
    (in_universe pools0 r g i = true -> pools_free (a_pools (s_alloc s)) r g i + live_held (s_live s) r g i = FPU)
    /\ (in_universe pools0 r g i = false -> live_held (s_live s) r g i = 0).
Proof.
  intros [L HI] Hr H0 g i.
  assert (Hp : exists p, nth_error (a_pools (s_alloc s)) (nat_of r) = Some p).
  { destruct (nth_error (a_pools (s_alloc s)) (nat_of r)) eqn:E; eauto. apply nth_error_None in E. unfold len, nat_of in *. lia. }
  destruct Hp as [p Hp]. specialize (HI r p0 p Hr H0 Hp). destruct HI as (K & F & C).
  rewrite live_held_flat. fold (HL (s_live s) r). unfold in_universe, pools_free. rewrite H0, Hp.
  unfold pool_universe, pool_free.
  destruct (pool_is_sum p) eqn:Es.
  - destruct p; try discriminate Es. destruct p0; try discriminate K. destruct C as [_ C]. unfold HL in *. simpl. rewrite C.
    split; [destruct (nat_of g); discriminate | auto].
  - assert (C' : GsI (pool_us p0) (pool_groups p) (hsum (HL (s_live s) r)) (hfany (HL (s_live s) r))
                 /\ Forall (fun ix => ai_frac ix < FPU /\ ai_group ix < len (pool_groups p)) (HL (s_live s) r))
      by (destruct p; try discriminate Es; exact C).
    destruct C' as [[Lg HG] Hb]. unfold pool_us in *. rewrite map_length in Lg.
    destruct (N.ltb_spec g (len (pool_groups p))) as [Hg|Hg].
    + destruct (nth_error (pool_groups p) (nat_of g)) as [gr|] eqn:Eg.
      2:{ apply nth_error_None in Eg. unfold len, nat_of in *. lia. }
      destruct (nth_error (map g_idx (pool_groups p0)) (nat_of g)) as [u|] eqn:Eu.
      2:{ apply nth_error_None in Eu. rewrite map_length in Eu. unfold len, nat_of in *. lia. }
      specialize (HG g u gr Eu Eg Hg). destruct HG as (Hwf & Hc & Hout & Hhf).
      split; intros Hm.
      * apply memN_in in Hm. apply Hc; auto.
      * apply memN_false in Hm. apply (Hout i); auto.
    + replace (nth_error (map g_idx (pool_groups p0)) (nat_of g)) with (@None (list N)).
      2:{ symmetry. apply nth_error_None. rewrite map_length. unfold len, nat_of in *. lia. }
      split; [discriminate|]. intros _. eapply hsum_zero_group; eauto.
Qed.

Definition worker_pools (s0 : sys) : list pool := a_pools (s_alloc s0).

(** exclusivity: no index of the worker is held beyond 100 %, nothing outside the worker's indices is held *)
Theorem exclusive_thm d s0 ops s r p0 g i :
  init d = Ok s0 -> run s0 ops = Ok s ->
  r < len (worker_pools s0) -> nth_error (worker_pools s0) (nat_of r) = Some p0 ->
  live_held (s_live s) r g i <= FPU
  /\ (in_universe (worker_pools s0) r g i = false -> live_held (s_live s) r g i = 0).
Proof.
  intros Hi Hr Hlt H0. pose proof (reachable_core _ _ _ _ Hi Hr) as HC.
  destruct (core_conserved _ _ _ _ HC Hlt H0 g i) as [A B]. split; auto.
  unfold worker_pools in *. destruct (in_universe (a_pools (s_alloc s0)) r g i) eqn:E; [specialize (A eq_refl); lia | rewrite B; auto; lia].
Qed.

Lemma sum_reading pools0 s r f x :
  CoreInv pools0 s -> r < len pools0 -> nth_error pools0 (nat_of r) = Some (PSum f x) ->
  exists free, nth_error (a_pools (s_alloc s)) (nat_of r) = Some (PSum f free) /\ free + live_sum_amount (s_live s) r = f.
Proof.
  intros [L HI] Hr H0.
  assert (Hp : exists p, nth_error (a_pools (s_alloc s)) (nat_of r) = Some p).
  { destruct (nth_error (a_pools (s_alloc s)) (nat_of r)) eqn:E; eauto. apply nth_error_None in E. unfold len, nat_of in *. lia. }
  destruct Hp as [p Hp]. destruct (HI r _ p Hr H0 Hp) as (K & F & C).
  destruct p; try discriminate K. simpl in F. subst. destruct C as [C _].
  rewrite (TL_sum _ _ _ _ _ H0) in C. eauto.
Qed.

(** sum bound: what is taken from a sum resource never exceeds its size, and free + taken = size *)
Theorem sum_bound_thm d s0 ops s r f x :
  init d = Ok s0 -> run s0 ops = Ok s ->
  r < len (worker_pools s0) -> nth_error (worker_pools s0) (nat_of r) = Some (PSum f x) ->
  live_sum_amount (s_live s) r <= f
  /\ exists free, nth_error (a_pools (s_alloc s)) (nat_of r) = Some (PSum f free) /\ free + live_sum_amount (s_live s) r = f.
Proof.
  intros Hi Hr Hlt H0. pose proof (reachable_core _ _ _ _ Hi Hr) as HC.
  destruct (sum_reading _ _ _ _ _ HC Hlt H0) as (free & A & B). split; [lia|eauto].
Qed.

(** conservation: for every index of the worker, free amount + amount held by running tasks = 100 % *)
Theorem conservation_thm d s0 ops s r p0 g i :
  init d = Ok s0 -> run s0 ops = Ok s ->
  r < len (worker_pools s0) -> nth_error (worker_pools s0) (nat_of r) = Some p0 ->
  in_universe (worker_pools s0) r g i = true ->
  pools_free (a_pools (s_alloc s)) r g i + live_held (s_live s) r g i = FPU.
Proof.
  intros Hi Hr Hlt H0 Hu. pose proof (reachable_core _ _ _ _ Hi Hr) as HC.
  destruct (core_conserved _ _ _ _ HC Hlt H0 g i) as [A B]. auto.
Qed.

Lemma live_held_app live al r g i : live_held (live ++ [al]) r g i = live_held live r g i + alloc_held al r g i.
Proof. unfold live_held. rewrite map_app, sumN_app. cbn [map]. rewrite sumN_cons, sumN_nil. lia. Qed.

Lemma live_held_remove live k al r g i :
  nth_error live k = Some al -> live_held live r g i = live_held (remove_nth live k) r g i + alloc_held al r g i.
Proof.
  unfold live_held. revert k; induction live as [|x live IH]; intros [|k] H; simpl in *; try discriminate.
  - inversion H; subst. rewrite sumN_cons. lia.
  - rewrite !sumN_cons. rewrite (IH k H). lia.
Qed.

Lemma step_alloc_live s rq w s' al : step s (OAlloc rq w) = Ok (s', OutGrant al) -> s_live s' = s_live s ++ [al].
Proof.
  simpl. destruct (try_allocate (s_alloc s) rq w) as [[a' [al'|]]| |]; simpl; intros H; inversion H; subst; auto.
Qed.

Lemma step_release_live s k s' o :
  step s (ORelease k) = Ok (s', o) ->
  exists al, nth_error (s_live s) (nat_of k) = Some al /\ s_live s' = remove_nth (s_live s) (nat_of k).
Proof.
  simpl. destruct (k <? len (s_live s)); try discriminate.
  destruct (nth_error (s_live s) (nat_of k)) as [al|]; try discriminate.
  destruct (release_allocation (s_alloc s) al); simpl; intros H; inversion H; subst. eauto.
Qed.

(** told is held: a grant changes the free state by exactly the indices listed in the allocation *)
Theorem told_is_held_thm d s0 ops s rq w s' al r p0 g i :
  init d = Ok s0 -> run s0 ops = Ok s -> step s (OAlloc rq w) = Ok (s', OutGrant al) ->
  r < len (worker_pools s0) -> nth_error (worker_pools s0) (nat_of r) = Some p0 ->
  in_universe (worker_pools s0) r g i = true ->
  pools_free (a_pools (s_alloc s)) r g i = pools_free (a_pools (s_alloc s')) r g i + alloc_held al r g i.
Proof.
  intros Hi Hr Hs Hlt H0 Hu. pose proof (reachable_core _ _ _ _ Hi Hr) as HC.
  pose proof (step_core _ _ _ _ _ HC Hs) as HC'.
  destruct (core_conserved _ _ _ _ HC Hlt H0 g i) as [A _].
  destruct (core_conserved _ _ _ _ HC' Hlt H0 g i) as [A' _].
  specialize (A Hu). specialize (A' Hu). rewrite (step_alloc_live _ _ _ _ _ Hs), live_held_app in A'. lia.
Qed.

(** release restores: a release gives back exactly what the allocation held ... *)
Theorem release_returns_thm d s0 ops s k s' o r p0 g i :
  init d = Ok s0 -> run s0 ops = Ok s -> step s (ORelease k) = Ok (s', o) ->
  r < len (worker_pools s0) -> nth_error (worker_pools s0) (nat_of r) = Some p0 ->
  in_universe (worker_pools s0) r g i = true ->
  exists al, nth_error (s_live s) (nat_of k) = Some al
             /\ pools_free (a_pools (s_alloc s')) r g i = pools_free (a_pools (s_alloc s)) r g i + alloc_held al r g i.
Proof.
  intros Hi Hr Hs Hlt H0 Hu. pose proof (reachable_core _ _ _ _ Hi Hr) as HC.
  pose proof (step_core _ _ _ _ _ HC Hs) as HC'.
  destruct (step_release_live _ _ _ _ Hs) as (al & Hn & Hl). exists al. split; auto.
  destruct (core_conserved _ _ _ _ HC Hlt H0 g i) as [A _].
  destruct (core_conserved _ _ _ _ HC' Hlt H0 g i) as [A' _].
  specialize (A Hu). specialize (A' Hu). rewrite Hl in A'. rewrite (live_held_remove _ _ _ r g i Hn) in A. lia.
Qed.

(** ... and when nothing is held any more every index of the worker is whole and free again,
    and every sum resource is back at its size *)
Theorem release_all_restores_thm d s0 ops s :
  init d = Ok s0 -> run s0 ops = Ok s -> s_live s = [] ->
  (forall r p0 g i, r < len (worker_pools s0) -> nth_error (worker_pools s0) (nat_of r) = Some p0 ->
                    in_universe (worker_pools s0) r g i = true -> pools_free (a_pools (s_alloc s)) r g i = FPU)
  /\ (forall r f x, r < len (worker_pools s0) -> nth_error (worker_pools s0) (nat_of r) = Some (PSum f x) ->
                    nth_error (a_pools (s_alloc s)) (nat_of r) = Some (PSum f f)).
Proof.
  intros Hi Hr Hl. pose proof (reachable_core _ _ _ _ Hi Hr) as HC. split.
  - intros r p0 g i Hlt H0 Hu. destruct (core_conserved _ _ _ _ HC Hlt H0 g i) as [A _].
    specialize (A Hu). rewrite Hl in A. unfold live_held in A. simpl in A. rewrite sumN_nil in A. lia.
  - intros r f x Hlt H0. destruct (sum_reading _ _ _ _ _ HC Hlt H0) as (free & A & B).
    rewrite Hl in B. unfold live_sum_amount in B. simpl in B. rewrite sumN_nil in B. replace free with f in A by lia. auto.
Qed.

