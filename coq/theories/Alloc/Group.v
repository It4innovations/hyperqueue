(** Elementary steps on one group of a pool (and on its concise mirror): taking / returning one
    AllocationIndex.  Everything the pool functions do is a sequence of these steps. *)
From Coq Require Import Permutation.
From HQ Require Import Base.Prelude Gen.Consts Alloc.Model Alloc.Spec Alloc.Lemmas.
Require Import ZifyBool.
Open Scope N_scope.

(** well-formed group: what the debug-only ResourcePool::validate() asserts *)
Definition gwf (g : group) : Prop :=
  NoDup (g_idx g) /\ NoDup (keys (g_fr g))
  /\ (forall i, In i (g_idx g) -> fget (g_fr g) i = None)
  /\ (forall i f, fget (g_fr g) i = Some f -> f < FPU).

Lemma take1_memN g ix :
  take1 g ix =
  let i := ai_index ix in
  if ai_frac ix =? 0 then
    if memN i (g_idx g) then Some (mkGroup (removeN i (g_idx g)) (g_fr g)) else None
  else
    match fget (g_fr g) i with
    | Some f => if ai_frac ix <=? f then Some (mkGroup (g_idx g) (fset (g_fr g) i (f - ai_frac ix))) else None
    | None =>
        if memN i (g_idx g) && (ai_frac ix <? FPU)
        then Some (mkGroup (removeN i (g_idx g)) (fset (g_fr g) i (FPU - ai_frac ix))) else None
    end.
Proof. reflexivity. Qed.

(** holdings of a group, abstractly: [h i] = amount of index i held by live allocations,
    [hf i] = some live allocation holds a fraction of i *)
Definition add_h (h : N -> N) (ix : aidx) : N -> N :=
  fun i => h i + (if i =? ai_index ix then held_ix ix else 0).
Definition add_hf (hf : N -> bool) (ix : aidx) : N -> bool :=
  fun i => hf i || ((i =? ai_index ix) && negb (ai_frac ix =? 0)).

(** the holdings are made of whole indices and positive fractions *)
Definition compat (h : N -> N) (hf : N -> bool) : Prop :=
  forall i, (hf i = true -> 0 < h i) /\ (hf i = false -> h i = 0 \/ FPU <= h i).

(** group invariant relative to the indices [u] the group owns *)
Definition GI (u : list N) (g : group) (h : N -> N) (hf : N -> bool) : Prop :=
  gwf g
  /\ (forall i, In i u -> group_free g i + h i = FPU)
  /\ (forall i, ~ In i u -> ~ In i (g_idx g) /\ fget (g_fr g) i = None /\ h i = 0)
  /\ (forall i, hf i = true <-> fget (g_fr g) i <> None).

Lemma group_free_in g i : In i (g_idx g) -> group_free g i = FPU.
Proof. intros H. unfold group_free. apply memN_in in H. rewrite H. auto. Qed.
Lemma group_free_notin g i : ~ In i (g_idx g) -> group_free g i = fget0 (g_fr g) i.
Proof. intros H. unfold group_free. apply memN_false in H. rewrite H. auto. Qed.

Lemma held_ix_pos ix : 0 < held_ix ix.
Proof. unfold held_ix. destruct (N.eqb_spec (ai_frac ix) 0); [apply FPU_pos | lia]. Qed.

Lemma take1_index_in u g h hf ix g' : GI u g h hf -> take1 g ix = Some g' -> In (ai_index ix) u.
Proof.
  intros (Hwf & Hc & Hout & Hhf) Ht.
  destruct (in_dec N.eq_dec (ai_index ix) u) as [|Hn]; auto. exfalso.
  destruct (Hout _ Hn) as (H1 & H2 & _). rewrite take1_memN in Ht; cbv zeta in Ht.
  destruct (ai_frac ix =? 0).
  - destruct (memN (ai_index ix) (g_idx g)) eqn:E; [|discriminate]. apply memN_in in E. auto.
  - rewrite H2 in Ht. destruct (memN (ai_index ix) (g_idx g)) eqn:E; simpl in Ht; [|discriminate].
    apply memN_in in E. auto.
Qed.

(** [g'] differs from [g] at index [i] only *)
Definition same_but (i : N) (g g' : group) : Prop :=
  forall j, j <> i -> memN j (g_idx g') = memN j (g_idx g) /\ fget (g_fr g') j = fget (g_fr g) j.

(** ... then so does the invariant: what is to be shown is well-formedness and the balance at [i] *)
Lemma GI_update u g g' h hf h' hf' i :
  GI u g h hf -> gwf g' -> same_but i g g' -> (forall j, j <> i -> h' j = h j /\ hf' j = hf j) ->
  In i u -> group_free g' i + h' i = FPU -> (hf' i = true <-> fget (g_fr g') i <> None) ->
  GI u g' h' hf'.
Proof.
  intros (_ & Hc & Hout & Hhf) Hwf' Hs Hh Hiu Hi1 Hi3. split; [exact Hwf'|]. split; [|split].
  - intros j Hj. destruct (N.eq_dec j i) as [->|Hne]; [exact Hi1|].
    destruct (Hs j Hne) as [A B]. destruct (Hh j Hne) as [C _].
    specialize (Hc j Hj). unfold group_free, fget0 in *. rewrite A, B, C. exact Hc.
  - intros j Hj. assert (Hne : j <> i) by (intros ->; auto).
    destruct (Hs j Hne) as [A B]. destruct (Hh j Hne) as [C _]. destruct (Hout j Hj) as (X & Y & Z).
    rewrite B, C. split; [|auto]. intros Hin. apply X. apply memN_in. rewrite <- A. apply memN_in. exact Hin.
  - intros j. destruct (N.eq_dec j i) as [->|Hne]; [exact Hi3|].
    destruct (Hs j Hne) as [_ B]. destruct (Hh j Hne) as [_ D]. rewrite B, D. apply Hhf.
Qed.

Lemma add_h_other h hf ix j : j <> ai_index ix -> add_h h ix j = h j /\ add_hf hf ix j = hf j.
Proof.
  intros Hne. unfold add_h, add_hf. destruct (N.eqb_spec j (ai_index ix)); [contradiction|]. split; [lia | apply orb_false_r].
Qed.

Lemma add_h_same h hf ix :
  add_h h ix (ai_index ix) = h (ai_index ix) + held_ix ix
  /\ add_hf hf ix (ai_index ix) = hf (ai_index ix) || negb (ai_frac ix =? 0).
Proof. unfold add_h, add_hf. rewrite N.eqb_refl. split; reflexivity. Qed.

Lemma take1_GI u g h hf ix g' :
  GI u g h hf -> take1 g ix = Some g' -> GI u g' (add_h h ix) (add_hf hf ix).
Proof.
  intros HGI Ht. pose proof (take1_index_in _ _ _ _ _ _ HGI Ht) as Hiu.
  pose proof HGI as ((Hnd & Hndk & Hsf & Hlt) & Hc & Hout & Hhf).
  rewrite take1_memN in Ht; cbv zeta in Ht. destruct (add_h_same h hf ix) as [Eh Ehf].
  set (i := ai_index ix) in *. pose proof (Hc i Hiu) as Hci. unfold held_ix in Eh.
  destruct (N.eqb_spec (ai_frac ix) 0) as [Hz|Hz].
  - destruct (memN i (g_idx g)) eqn:E; [|discriminate]. inversion Ht; subst g'; clear Ht. apply memN_in in E.
    assert (Hfi : fget (g_fr g) i = None) by auto. rewrite group_free_in in Hci by auto.
    apply (GI_update u g _ h hf _ _ i HGI); try apply add_h_other; auto.
    + split; [apply nodup_removeN; auto|]. split; [auto|]. split; [|auto]. intros j Hj. apply in_removeN in Hj. auto.
    + intros j Hne. split; [apply memN_removeN_other; auto|reflexivity].
    + rewrite group_free_notin by (simpl; rewrite in_removeN_iff by auto; tauto).
      rewrite Eh. unfold fget0. simpl. rewrite Hfi. lia.
    + rewrite Ehf. simpl. rewrite orb_false_r. apply Hhf.
  - destruct (fget (g_fr g) i) as [f|] eqn:Hfi.
    + destruct (N.leb_spec (ai_frac ix) f) as [Hle|]; [|discriminate]. inversion Ht; subst g'; clear Ht.
      assert (Hni : ~ In i (g_idx g)) by (intros Hc'; apply Hsf in Hc'; congruence).
      rewrite group_free_notin in Hci by auto. unfold fget0 in Hci. rewrite Hfi in Hci.
      apply (GI_update u g _ h hf _ _ i HGI); try apply add_h_other; auto.
      * split; [auto|]. split; [apply nodup_keys_fset; auto|]. simpl. split.
        -- intros j Hj. rewrite fget_fset. destruct (N.eqb_spec i j); [subst; tauto | auto].
        -- intros j v. rewrite fget_fset. destruct (N.eqb_spec i j); [|apply Hlt].
           intros H; inversion H; subst. apply Hlt in Hfi. lia.
      * intros j Hne. split; [reflexivity|]. simpl. apply fget_fset_other. auto.
      * rewrite group_free_notin by auto. rewrite Eh. unfold fget0. simpl. rewrite fget_fset_same. lia.
      * rewrite Ehf. simpl. rewrite fget_fset_same, orb_true_r. split; [discriminate|reflexivity].
    + destruct (memN i (g_idx g)) eqn:E; simpl in Ht; [|discriminate].
      destruct (N.ltb_spec (ai_frac ix) FPU) as [Hlf|]; [|discriminate]. inversion Ht; subst g'; clear Ht.
      apply memN_in in E. rewrite group_free_in in Hci by auto.
      apply (GI_update u g _ h hf _ _ i HGI); try apply add_h_other; auto.
      * split; [apply nodup_removeN; auto|]. split; [apply nodup_keys_fset; auto|]. simpl. split.
        -- intros j Hj. apply in_removeN_iff in Hj; auto. destruct Hj as [Hj Hne].
           rewrite fget_fset. destruct (N.eqb_spec i j); [congruence | auto].
        -- intros j v. rewrite fget_fset. destruct (N.eqb_spec i j); [|apply Hlt].
           intros H; inversion H; subst. lia.
      * intros j Hne. split; [apply memN_removeN_other; auto|]. simpl. apply fget_fset_other. auto.
      * rewrite group_free_notin by (simpl; rewrite in_removeN_iff by auto; tauto).
        rewrite Eh. unfold fget0. simpl. rewrite fget_fset_same. lia.
      * rewrite Ehf. simpl. rewrite fget_fset_same, orb_true_r. split; [discriminate|reflexivity].
Qed.

(** returning one AllocationIndex: [release_index] of the model never panics for something that is held *)
Lemma release_index_GI u g h hf ix :
  GI u g (add_h h ix) (add_hf hf ix) -> compat h hf -> ai_frac ix < FPU ->
  exists g', release_index g ix = Ok g' /\ GI u g' h hf.
Proof.
  intros HGI Hcompat Hfl. pose proof HGI as ((Hnd & Hndk & Hsf & Hlt) & Hc & Hout & Hhf).
  destruct (add_h_same h hf ix) as [Eh Ehf]. set (i := ai_index ix) in *.
  assert (Hiu : In i u).
  { destruct (in_dec N.eq_dec i u) as [|Hn]; auto. exfalso.
    destruct (Hout _ Hn) as (_ & _ & Hh). rewrite Eh in Hh. pose proof (held_ix_pos ix). lia. }
  pose proof (Hc i Hiu) as Hci. rewrite Eh in Hci. pose proof (Hhf i) as Hhfi. rewrite Ehf in Hhfi.
  destruct (Hcompat i) as [Hc1 Hc2].
  assert (Hoth : forall j, j <> i -> h j = add_h h ix j /\ hf j = add_hf hf ix j)
    by (intros j Hne; destruct (add_h_other h hf ix j Hne); split; congruence).
  assert (Hpush : forall j fr, j <> i -> memN j (g_idx (mkGroup (i :: g_idx g) fr)) = memN j (g_idx g)).
  { intros j fr Hne. unfold memN. simpl. destruct (N.eqb_spec j i); [contradiction|reflexivity]. }
  unfold release_index. fold i. unfold held_ix in Hci.
  destruct (N.eqb_spec (ai_frac ix) 0) as [Hz|Hz]; simpl in Hhfi.
  - assert (Hgf : group_free g i = 0 /\ h i = 0) by lia. destruct Hgf as [Hgf Hhi].
    assert (Hni : ~ In i (g_idx g)).
    { intros Hin. rewrite group_free_in in Hgf by auto. pose proof FPU_pos. lia. }
    assert (Hfi : fget (g_fr g) i = None).
    { destruct (fget (g_fr g) i) eqn:E; auto. exfalso. rewrite orb_false_r in Hhfi.
      assert (Hx : hf i = true) by (apply Hhfi; discriminate). apply Hc1 in Hx. lia. }
    eexists; split; [reflexivity|]. apply (GI_update u g _ _ _ h hf i HGI); auto.
    + split; [constructor; auto|]. split; [auto|]. split; [|auto]. intros j [<-|Hj]; auto.
    + intros j Hne. split; [apply Hpush; auto|reflexivity].
    + rewrite group_free_in by (left; reflexivity). lia.
    + simpl. rewrite Hfi. split; [intros X; apply Hc1 in X; lia | congruence].
  - destruct (fget (g_fr g) i) as [f|] eqn:Hfi.
    2:{ exfalso. destruct Hhfi as [X _]. apply X; [apply orb_true_r | reflexivity]. }
    assert (Hni : ~ In i (g_idx g)) by (intros Hc'; apply Hsf in Hc'; congruence).
    rewrite group_free_notin in Hci by auto. unfold fget0 in Hci. rewrite Hfi in Hci.
    destruct (N.eqb_spec (f + ai_frac ix) FPU) as [Hfull|Hnf].
    + assert (Hhi : h i = 0) by lia.
      assert (Hhfi' : hf i = false). { destruct (hf i) eqn:E; auto. specialize (Hc1 eq_refl). lia. }
      eexists; split; [reflexivity|]. apply (GI_update u g _ _ _ h hf i HGI); auto.
      * split; [constructor; auto|]. split; [apply nodup_keys_fremove; auto|]. simpl. split.
        -- intros j [<-|Hj]; [apply fget_fremove_same; auto|].
           destruct (N.eqb_spec i j); [subst; tauto|]. rewrite fget_fremove_other; auto.
        -- intros j v. destruct (N.eqb_spec i j); [subst; rewrite fget_fremove_same; auto; discriminate|].
           rewrite fget_fremove_other; auto. apply Hlt.
      * intros j Hne. split; [apply Hpush; auto|]. simpl. apply fget_fremove_other. auto.
      * rewrite group_free_in by (left; reflexivity). lia.
      * simpl. rewrite fget_fremove_same by auto. rewrite Hhfi'. split; [discriminate|congruence].
    + assert (Hhfi' : hf i = true). { destruct (hf i) eqn:E; auto. destruct (Hc2 eq_refl); lia. }
      eexists; split; [reflexivity|]. apply (GI_update u g _ _ _ h hf i HGI); auto.
      * split; [auto|]. split; [apply nodup_keys_fset; auto|]. simpl. split.
        -- intros j Hj. rewrite fget_fset. destruct (N.eqb_spec i j); [subst; tauto | auto].
        -- intros j v. rewrite fget_fset. destruct (N.eqb_spec i j); [|apply Hlt].
           intros H; inversion H; subst. lia.
      * intros j Hne. split; [reflexivity|]. simpl. apply fget_fset_other. auto.
      * rewrite group_free_notin by auto. unfold fget0. simpl. rewrite fget_fset_same. lia.
      * simpl. rewrite fget_fset_same, Hhfi'. split; [discriminate|reflexivity].
Qed.


Definition cmirror (g : group) (c : cgroup) : Prop :=
  c_units c = len (g_idx g) /\ forall i, fget0 (c_fr c) i = fget0 (g_fr g) i.

(** one iteration of the remove loops of concise.rs on one group *)
Definition ctake1 (c : cgroup) (ix : aidx) : res cgroup :=
  if ai_frac ix =? 0 then
    if c_units c =? 0 then Panic SITE_CONCISE_ASSERT else Ok (mkCgroup (c_units c - 1) (c_fr c))
  else
    let old := fget0 (c_fr c) (ai_index ix) in
    if old <? ai_frac ix then
      if c_units c =? 0 then Panic SITE_CONCISE_ASSERT
      else Ok (mkCgroup (c_units c - 1) (fset (c_fr c) (ai_index ix) (FPU + old - ai_frac ix)))
    else Ok (mkCgroup (c_units c) (fset (c_fr c) (ai_index ix) (old - ai_frac ix))).

Definition cgive1 (c : cgroup) (ix : aidx) : res cgroup :=
  if ai_frac ix =? 0 then Ok (mkCgroup (c_units c + 1) (c_fr c))
  else
    let old := fget0 (c_fr c) (ai_index ix) + ai_frac ix in
    if FPU <=? old then
      if FPU <=? old - FPU then Panic SITE_CONCISE_ASSERT
      else Ok (mkCgroup (c_units c + 1) (fset (c_fr c) (ai_index ix) (old - FPU)))
    else Ok (mkCgroup (c_units c) (fset (c_fr c) (ai_index ix) old)).

Lemma len_removeN x l : In x l -> len (removeN x l) + 1 = len l.
Proof. intros H. unfold len. rewrite <- (length_removeN x l H). lia. Qed.

Lemma len_pos_in {A} (x : A) l : In x l -> 0 < len l.
Proof. destruct l; simpl; [tauto|]. unfold len. simpl. lia. Qed.

Lemma ctake1_mirror g c ix g' :
  gwf g -> cmirror g c -> take1 g ix = Some g' ->
  exists c', ctake1 c ix = Ok c' /\ cmirror g' c'.
Proof.
  intros (Hnd & Hndk & Hsf & Hlt) [Hu Hf] Ht. rewrite take1_memN in Ht; cbv zeta in Ht. unfold ctake1.
  set (i := ai_index ix) in *.
  destruct (N.eqb_spec (ai_frac ix) 0) as [Hz|Hz].
  - destruct (memN i (g_idx g)) eqn:E; [|discriminate]. inversion Ht; subst g'; clear Ht.
    apply memN_in in E. pose proof (len_pos_in _ _ E). pose proof (len_removeN _ _ E).
    destruct (N.eqb_spec (c_units c) 0); [lia|].
    eexists; split; [reflexivity|]. split; simpl; [lia | auto].
  - destruct (fget (g_fr g) i) as [f|] eqn:Hfi.
    + destruct (N.leb_spec (ai_frac ix) f) as [Hle|]; [|discriminate]. inversion Ht; subst g'; clear Ht.
      assert (Hold : fget0 (c_fr c) i = f) by (rewrite Hf; unfold fget0; rewrite Hfi; auto).
      rewrite Hold. destruct (N.ltb_spec f (ai_frac ix)); [lia|].
      eexists; split; [reflexivity|]. split; simpl; [auto|].
      intros j. rewrite !fget0_fset. destruct (i =? j); auto.
    + destruct (memN i (g_idx g)) eqn:E; simpl in Ht; [|discriminate].
      destruct (N.ltb_spec (ai_frac ix) FPU) as [Hlf|]; [|discriminate]. inversion Ht; subst g'; clear Ht.
      apply memN_in in E. pose proof (len_pos_in _ _ E). pose proof (len_removeN _ _ E).
      assert (Hold : fget0 (c_fr c) i = 0) by (rewrite Hf; unfold fget0; rewrite Hfi; auto).
      rewrite Hold. destruct (N.ltb_spec 0 (ai_frac ix)); [|lia].
      destruct (N.eqb_spec (c_units c) 0); [lia|].
      eexists; split; [reflexivity|]. split; simpl; [lia|].
      intros j. rewrite !fget0_fset. destruct (i =? j); auto; lia.
Qed.

Lemma cgive1_mirror u g h hf c ix g' :
  GI u g (add_h h ix) (add_hf hf ix) -> cmirror g c -> release_index g ix = Ok g' -> ai_frac ix < FPU ->
  exists c', cgive1 c ix = Ok c' /\ cmirror g' c'.
Proof.
  intros ((Hnd & Hndk & Hsf & Hlt) & Hc & Hout & Hhf) [Hu Hf] Hr Hfl. unfold release_index in Hr. unfold cgive1.
  set (i := ai_index ix) in *.
  destruct (N.eqb_spec (ai_frac ix) 0) as [Hz|Hz].
  - inversion Hr; subst g'; clear Hr. eexists; split; [reflexivity|]. split; simpl; auto.
    unfold len in *. simpl. lia.
  - destruct (fget (g_fr g) i) as [f|] eqn:Hfi; [|discriminate].
    assert (Hold : fget0 (c_fr c) i = f) by (rewrite Hf; unfold fget0; rewrite Hfi; auto).
    rewrite Hold. pose proof (Hlt _ _ Hfi).
    assert (Hiu : In i u).
    { destruct (in_dec N.eq_dec i u) as [|Hn]; auto. exfalso.
      destruct (Hout _ Hn) as (_ & Hx & _). congruence. }
    assert (Hsum : f + ai_frac ix <= FPU).
    { pose proof (Hc i Hiu) as Hci. unfold add_h in Hci. fold i in Hci. rewrite N.eqb_refl in Hci.
      assert (Hni : ~ In i (g_idx g)) by (intros Hc'; apply Hsf in Hc'; congruence).
      rewrite group_free_notin in Hci by auto. unfold fget0 in Hci. rewrite Hfi in Hci.
      unfold held_ix in Hci. destruct (N.eqb_spec (ai_frac ix) 0); [congruence|]. lia. }
    destruct (N.eqb_spec (f + ai_frac ix) FPU) as [Hfull|Hnf]; inversion Hr; subst g'; clear Hr.
    + destruct (N.leb_spec FPU (f + ai_frac ix)); [|lia].
      destruct (N.leb_spec FPU (f + ai_frac ix - FPU)); [lia|].
      eexists; split; [reflexivity|]. split; simpl; [unfold len in *; simpl; lia|].
      intros j. rewrite fget0_fset. destruct (N.eqb_spec i j).
      * subst j. unfold fget0. rewrite fget_fremove_same; auto. lia.
      * unfold fget0 at 2. rewrite fget_fremove_other; auto. apply Hf.
    + destruct (N.leb_spec FPU (f + ai_frac ix)); [lia|].
      eexists; split; [reflexivity|]. split; simpl; auto.
      intros j. rewrite !fget0_fset. destruct (i =? j); auto.
Qed.
