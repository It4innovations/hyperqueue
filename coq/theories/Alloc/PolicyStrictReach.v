(** C16 - strict policies in reachable states (no coupling weights, first admission test of the request,
    answers of the solver minimal per entry): has_resources_for_request admits EXACTLY when the request fits and
    every coupled entry can be served NOW with the minimum number of groups of the EMPTY worker
    (the reference of the monitor strict-refused-at-minimum, as an equivalence). *)
From Coq Require Import Permutation.
From HQ Require Import Base.Prelude Gen.Consts Alloc.Model Alloc.Spec Alloc.Lemmas Alloc.Group Alloc.Pool Alloc.Inv Alloc.Claims Alloc.Mirror Alloc.Theorems Alloc.MirrorSystem Alloc.Admission Alloc.AllFree Alloc.Objective Alloc.Examples
  Alloc.PolicyAdmission Alloc.PolicyStrict.
Require Import ZifyBool.
Open Scope N_scope.

Lemma step_static s o s' out : step s o = Ok (s', out) ->
  a_all (s_alloc s') = a_all (s_alloc s) /\ a_weights (s_alloc s') = a_weights (s_alloc s).
Proof.
  intros H. destruct (step_inv _ _ _ _ H) as [(? & ? & ? & ? & _ & -> & _)|[(? & ? & ? & ? & ? & ? & _ & _ & _ & _ & _ & ->)|(? & ? & ? & ? & _ & _ & _ & _ & _ & ->)]];
    auto.
Qed.

Lemma run_static ops : forall s s', run s ops = Ok s' ->
  a_all (s_alloc s') = a_all (s_alloc s) /\ a_weights (s_alloc s') = a_weights (s_alloc s).
Proof.
  induction ops as [|o ops IH]; intros s s' H; cbn [run] in H.
  - inversion H; subst. auto.
  - destruct (step s o) as [[s1 out]| |] eqn:Es; cbn [bind fst] in H; try discriminate.
    destruct (step_static _ _ _ _ Es) as [A B]. destruct (IH _ _ H) as [C D]. split; congruence.
Qed.

Lemma init_static d s0 : init d = Ok s0 ->
  Forall fresh (a_pools (s_alloc s0))
  /\ a_all (s_alloc s0) = map concise_state (a_pools (s_alloc s0))
  /\ (d_coupling d = [] -> a_weights (s_alloc s0) = []).
Proof.
  intros Hi. pose proof (init_fresh _ _ Hi) as Hfr. destruct (init_inv _ _ Hi) as (pools & ws & -> & Ew & _).
  cbn [s_alloc a_pools a_all a_weights] in *. split; [exact Hfr|split; [reflexivity|]].
  intros Hc. rewrite Hc in Ew. cbn [new_weights] in Ew. inversion Ew. reflexivity.
Qed.

Definition ref_row (pools : list pool) (e : entry) : list (N * N) * N * N :=
  match nth_error pools (nat_of (e_res e)), e_req e with
  | Some p, Req _ a => (pool_per_group p, fst (split a), snd (split a))
  | _, _ => ([], 0, 0)
  end.

Lemma ref_row_eq pools e full gs pol a :
  nth_error pools (nat_of (e_res e)) = Some (PGroups full gs) -> e_req e = Req pol a ->
  ref_row pools e = (pool_per_group (PGroups full gs), fst (split a), snd (split a)).
Proof. intros H1 H2. unfold ref_row. rewrite H1, H2. reflexivity. Qed.

Lemma mirror_per_group gs c : gs_mirror gs c -> gs_wf gs -> cs_nodup c ->
  amount_max_per_group c = map (fun g => (len (g_idx g), fmax (g_fr g))) gs.
Proof.
  induction 1 as [|g cg gs c [Hu Hf] _ IH]; intros Hwf Hn; [reflexivity|].
  inversion Hwf as [|? ? (Hnd & Hndk & Hsf & Hlt) Hwf']; subst. inversion Hn as [|? ? Hnk Hn']; subst.
  unfold amount_max_per_group in *. cbn [map]. rewrite (IH Hwf' Hn'), Hu. f_equal. f_equal. apply fmax_ext; auto.
Qed.

Lemma is_coupled_inv pools e : is_coupled pools e = true ->
  exists full gs pol a, nth_error pools (nat_of (e_res e)) = Some (PGroups full gs) /\ e_req e = Req pol a.
Proof.
  unfold is_coupled. destruct (nth_error pools (nat_of (e_res e))) as [p|]; [|discriminate].
  intros H. apply andb_true_iff in H. destruct H as [H1 H2].
  destruct p; try discriminate H1. destruct (e_req e) as [pol a|]; [|discriminate H2].
  eexists _, _, _, _. split; reflexivity.
Qed.

Lemma solver_rows_now pools0 pools free Hf Tf cp :
  PoolsInv pools0 pools free Hf Tf -> free_nodup free ->
  Forall (fun e => is_coupled pools e = true) cp ->
  solver_rows free cp = Ok (map (ref_row pools) cp).
Proof.
  intros HPI Hn. induction 1 as [|e cp He _ IH]; [reflexivity|].
  destruct (is_coupled_inv _ _ He) as (full & gs & pol & a & Hp & Hreq).
  cbn [solver_rows map]. rewrite Hreq.
  destruct (PoolsInv_at _ _ _ _ _ _ _ HPI Hp) as (p0 & c & _ & Hc & (_ & _ & _ & Hm & Hw & _)).
  rewrite Hc. cbn [bind]. rewrite IH. cbn [bind]. cbn [pool_groups] in *.
  assert (Hcn : cs_nodup c) by (eapply get_at_forall; eauto).
  rewrite (mirror_per_group _ _ Hm Hw Hcn).
  unfold ref_row. rewrite Hp, Hreq. unfold pool_per_group. cbn [pool_groups]. destruct (split a); reflexivity.
Qed.

Lemma solver_rows_all pools0 cp :
  Forall (fun e => is_coupled pools0 e = true) cp ->
  solver_rows (map concise_state pools0) cp = Ok (map (ref_row pools0) cp).
Proof.
  induction 1 as [|e cp He _ IH]; [reflexivity|].
  destruct (is_coupled_inv _ _ He) as (full & gs & pol & a & Hp & Hreq).
  cbn [solver_rows map]. rewrite Hreq.
  assert (Hg : get_at (map concise_state pools0) (e_res e) = Ok (concise_state (PGroups full gs))).
  { apply get_at_ok. split; [unfold len; rewrite map_length; apply nth_error_some_lt in Hp; unfold nat_of in *; lia|].
    rewrite nth_error_map, Hp. reflexivity. }
  rewrite Hg. cbn [bind]. rewrite IH. cbn [bind].
  unfold ref_row. rewrite Hp, Hreq. unfold pool_per_group, amount_max_per_group. cbn [pool_groups concise_state].
  rewrite map_map. cbn [c_units c_fr]. destruct (split a); reflexivity.
Qed.

Lemma Forall2_length' {A B} (R : A -> B -> Prop) l l' : Forall2 R l l' -> length l = length l'.
Proof. induction 1; cbn [length]; auto. Qed.
Arguments Forall2_length' {A B R l l'} _.
Definition below (n a : N * N) : Prop := fst n + (if snd n =? 0 then 0 else 1) <= fst a.

Lemma mask_sum_below per_now per_all f m :
  Forall2 below per_now per_all -> f <> 0 ->
  mask_sum per_now m fst
  + (if existsb (fun gi => match nth_error per_now (nat_of gi) with Some uf => f <=? snd uf | None => false end) m then 1 else 0)
  <= mask_sum per_all m fst.
Proof.
  intros HB Hf. induction m as [|g m IH]; [cbn [existsb]; unfold mask_sum; cbn [fold_right]; lia|].
  rewrite !mask_sum_cons. cbn [existsb].
  destruct (nth_error per_now (nat_of g)) as [n|] eqn:En.
  - destruct (Forall2_nth _ _ _ _ _ HB En) as (a & Ea & Hna). rewrite Ea. unfold below in Hna.
    destruct (N.leb_spec f (snd n)) as [Hfit|Hnf]; cbn [orb].
    + destruct (N.eqb_spec (snd n) 0); [lia|].
      destruct (existsb _ m); lia.
    + destruct (N.eqb_spec (snd n) 0); destruct (existsb _ m); lia.
  - assert (Ea : nth_error per_all (nat_of g) = None).
    { apply nth_error_None. apply nth_error_None in En. rewrite <- (Forall2_length' HB). auto. }
    rewrite Ea. cbn [orb]. auto.
Qed.

Lemma sufficient_dominated per_now per_all u f m :
  Forall2 below per_now per_all ->
  sufficient per_now u f m = true -> sufficient per_all u f m = true.
Proof.
  intros HB. unfold sufficient. rewrite !andb_true_iff, !orb_true_iff. intros [H1 H2].
  apply N.leb_le in H1.
  destruct (N.eq_dec f 0) as [Hz|Hz].
  - assert (Hle : mask_sum per_now m fst <= mask_sum per_all m fst).
    { clear - HB. induction m as [|g m IH]; [unfold mask_sum; cbn [fold_right]; lia|]. rewrite !mask_sum_cons.
      destruct (nth_error per_now (nat_of g)) as [n|] eqn:En.
      - destruct (Forall2_nth _ _ _ _ _ HB En) as (a & Ea & Hna). rewrite Ea. unfold below in Hna. destruct (snd n =? 0); lia.
      - assert (Ea : nth_error per_all (nat_of g) = None).
        { apply nth_error_None. apply nth_error_None in En. rewrite <- (Forall2_length' HB). auto. }
        rewrite Ea. auto. }
    split; [apply N.leb_le; lia|]. left. left. apply N.eqb_eq. auto.
  - pose proof (mask_sum_below _ _ f m HB Hz) as Hb.
    split; [apply N.leb_le; destruct (existsb _ m); lia|].
    destruct H2 as [[H2|H2]|H2].
    + apply N.eqb_eq in H2. congruence.
    + left. right. apply N.leb_le in H2. apply N.leb_le. destruct (existsb _ m); lia.
    + left. right. rewrite H2 in Hb. apply N.leb_le. lia.
Qed.

Lemma fmax_witness m : fmax m <> 0 -> exists k v, fget m k = Some v.
Proof.
  destruct m as [|[k v] m']; intros H; [exfalso; apply H; reflexivity|].
  exists k, v. cbn [fget]. rewrite N.eqb_refl. reflexivity.
Qed.

Lemma group_below u g h hf : GI u g h hf -> NoDup u ->
  below (len (g_idx g), fmax (g_fr g)) (len u, 0).
Proof.
  intros HGI Hndu. destruct (GI_stack_inside _ _ _ _ HGI) as [Hnd Hincl].
  destruct HGI as ((_ & _ & Hsf & _) & _ & Hout & _).
  unfold below. cbn [fst snd].
  destruct (N.eqb_spec (fmax (g_fr g)) 0) as [Hz|Hz].
  - pose proof (NoDup_incl_length Hnd Hincl). unfold len. lia.
  - destruct (fmax_witness _ Hz) as (k & v & Hk).
    assert (Hku : In k u).
    { destruct (in_dec N.eq_dec k u) as [|Hn]; auto. destruct (Hout k Hn) as (_ & X & _). congruence. }
    assert (Hkg : ~ In k (g_idx g)) by (intros Hin; rewrite (Hsf k Hin) in Hk; discriminate).
    assert (Hnd2 : NoDup (k :: g_idx g)) by (constructor; auto).
    assert (Hincl2 : incl (k :: g_idx g) u) by (intros y [<-|Hy]; auto).
    pose proof (NoDup_incl_length Hnd2 Hincl2) as Hl. cbn [length] in Hl. unfold len. lia.
Qed.

Lemma pool_below p0 p c H taken full gs :
  PoolInv p0 p c H taken -> fresh p0 -> p = PGroups full gs ->
  exists full0 gs0, p0 = PGroups full0 gs0 /\ Forall2 below (pool_per_group p) (pool_per_group p0).
Proof.
  intros (K & F & C) Hfr ->. destruct p0 as [| |full0 gs0|]; try discriminate K.
  exists full0, gs0. split; auto. destruct C as ((Lg & HG) & _). unfold pool_us in *. cbn [pool_groups] in *. rewrite map_length in Lg.
  unfold pool_per_group. cbn [pool_groups]. cbn [fresh pool_groups] in Hfr.
  apply Forall2_from_nth; [rewrite !map_length; auto|].
  intros n x y Hx Hy. rewrite nth_error_map in Hx, Hy.
  destruct (nth_error gs n) as [gn|] eqn:En; [|discriminate]. destruct (nth_error gs0 n) as [g0n|] eqn:E0n; [|discriminate].
  inversion Hx; inversion Hy; subst.
  destruct (Forall_nth _ _ _ _ Hfr E0n) as [Hfr0 Hnd0]. rewrite Hfr0. cbn [fmax].
  eapply group_below; [|exact Hnd0].
  apply (HG (N.of_nat n)); [rewrite nat_of_of_nat, nth_error_map, E0n; reflexivity | rewrite nat_of_of_nat; auto |].
  apply nth_error_some_lt in En. unfold len. lia.
Qed.

Lemma rows_dominated_ref pools0 pools free Hf Tf cp :
  PoolsInv pools0 pools free Hf Tf -> Forall fresh pools0 ->
  Forall (fun e => is_coupled pools e = true) cp ->
  rows_dominated (map (ref_row pools) cp) (map (ref_row pools0) cp)
  /\ Forall (fun e => is_coupled pools0 e = true) cp.
Proof.
  intros HPI Hfr. induction 1 as [|e cp He _ IH]; [split; [exact I|constructor]|].
  destruct IH as [IH1 IH2].
  destruct (is_coupled_inv _ _ He) as (full & gs & pol & a & Hp & Hreq).
  destruct (PoolsInv_at _ _ _ _ _ _ _ HPI Hp) as (p0 & c & E0 & _ & HI).
  destruct (pool_below _ _ _ _ _ full gs HI (Forall_nth _ _ _ _ Hfr E0) eq_refl) as (full0 & gs0 & -> & HB).
  split.
  - cbn [map]. rewrite (ref_row_eq _ _ _ _ _ _ Hp Hreq), (ref_row_eq _ _ _ _ _ _ E0 Hreq). cbn [rows_dominated].
    split; [reflexivity|]. split; [reflexivity|]. split; [unfold len; f_equal; apply (Forall2_length' HB)|].
    split; [intros m; apply sufficient_dominated; auto|]. exact IH1.
  - constructor; auto. unfold is_coupled. rewrite E0, Hreq. unfold is_coupled in He. rewrite Hp, Hreq in He. exact He.
Qed.

Lemma increasing_seqN n : forall lo, strictly_increasing_below (seqN lo n) lo (lo + N.of_nat n) = true.
Proof.
  induction n as [|n IH]; intros lo; cbn [seqN strictly_increasing_below]; [reflexivity|].
  specialize (IH (lo + 1)). replace (lo + 1 + N.of_nat n) with (lo + N.of_nat (S n)) in IH by lia. rewrite IH.
  destruct (N.leb_spec lo lo), (N.ltb_spec lo (lo + N.of_nat (S n))); first [lia | reflexivity].
Qed.

Lemma full_masks_feasible pools cp :
  Forall (fun e => is_coupled pools e = true) cp -> forallb (entry_fits pools) cp = true ->
  masks_feasible (map (ref_row pools) cp) (full_masks (map (ref_row pools) cp)) = true.
Proof.
  induction 1 as [|e cp He _ IH]; intros Hfit; [reflexivity|].
  cbn [forallb] in Hfit. apply andb_true_iff in Hfit. destruct Hfit as [Hf1 Hf2].
  destruct (is_coupled_inv _ _ He) as (full & gs & pol & a & Hp & Hreq).
  cbn [map]. rewrite (ref_row_eq _ _ _ _ _ _ Hp Hreq). unfold full_masks. cbn [map masks_feasible fst].
  fold (full_masks (map (ref_row pools) cp)). rewrite (IH Hf2), andb_true_r.
  unfold entry_fits in Hf1. rewrite Hp, Hreq in Hf1. destruct (split a) as [u f]. cbn [fst snd].
  rewrite rows_mean_sufficient, Hf1, andb_true_r.
  unfold full_mask, len. pose proof (increasing_seqN (length (pool_per_group (PGroups full gs))) 0) as X.
  rewrite N.add_0_l in X. exact X.
Qed.

Lemma hr_entries_coupling pools free entries : forall coupling cp,
  hr_entries pools free entries coupling = Ok (true, cp) -> cp = coupling ++ filter (is_coupled pools) entries.
Proof.
  induction entries as [|e rest IH]; intros coupling cp H; cbn [hr_entries] in H.
  - inversion H; subst. cbn [filter]. rewrite app_nil_r. reflexivity.
  - destruct (N.leb_spec (len pools) (e_res e)); [discriminate|].
    destruct (get_at pools (e_res e)) as [p| |] eqn:Ep; cbn [bind] in H; try discriminate.
    destruct (get_at free (e_res e)) as [c| |]; cbn [bind] in H; try discriminate.
    destruct (amount_max_alloc c) as [m| |]; cbn [bind] in H; try discriminate.
    destruct (match e_req e with Req _ a => a <=? m | ReqAll => m =? pool_full_size p end); [|discriminate].
    apply IH in H. subst cp. cbn [filter]. unfold is_coupled at 2. apply get_at_ok in Ep. destruct Ep as [_ Hn]. rewrite Hn.
    destruct (is_groups p && is_relevant_for_coupling (e_req e)); [rewrite <- app_assoc|]; reflexivity.
Qed.

(** the reference of the monitor strict-refused-at-minimum, per coupled entry *)
Definition at_min (pools0 pools : list pool) (e : entry) : bool :=
  match e_req e, nth_error pools (nat_of (e_res e)), nth_error pools0 (nat_of (e_res e)) with
  | Req _ a, Some pb, Some p0 =>
      let '(u, f) := split a in opt_eqb (min_groups (pool_per_group pb) u f) (min_groups (pool_per_group p0) u f)
  | _, _, _ => true
  end.

Lemma row_mins_at_min pools0 pools cp :
  Forall (fun e => is_coupled pools e = true) cp -> Forall (fun e => is_coupled pools0 e = true) cp ->
  list_eqb opt_eqb (row_mins (map (ref_row pools) cp)) (row_mins (map (ref_row pools0) cp)) = forallb (at_min pools0 pools) cp.
Proof.
  induction 1 as [|e cp He _ IH]; intros H0; [reflexivity|]. inversion H0 as [|? ? He0 H0']; subst.
  destruct (is_coupled_inv _ _ He) as (full & gs & pol & a & Hp & Hreq).
  destruct (is_coupled_inv _ _ He0) as (full0 & gs0 & pol0 & a0 & Hp0 & Hreq0).
  cbn [map forallb]. rewrite (ref_row_eq _ _ _ _ _ _ Hp Hreq), (ref_row_eq _ _ _ _ _ _ Hp0 Hreq). unfold at_min at 1.
  rewrite Hp, Hp0, Hreq. cbn [row_mins list_eqb]. rewrite (IH H0'). destruct (split a); reflexivity.
Qed.

(** a request that fits, in a reachable state of a worker without coupling weights: what the strict path of the
    admission test works with - the coupled entries [cp], the solver's rows now and for the empty worker (both read
    off the pools), the latter dominating the former; selecting every group is a solution *)
Lemma strict_setting d s0 ops s rq :
  init d = Ok s0 -> Forall valid_op ops -> run s0 ops = Ok s -> d_coupling d = [] ->
  request_fits (a_pools (s_alloc s)) rq = true ->
  exists cp, cp = coupled_entries (a_pools (s_alloc s)) rq
  /\ hr_entries (a_pools (s_alloc s)) (a_free (s_alloc s)) rq [] = Ok (true, cp)
  /\ a_weights (s_alloc s) = []
  /\ solver_rows (a_free (s_alloc s)) cp = Ok (map (ref_row (a_pools (s_alloc s))) cp)
  /\ solver_rows (a_all (s_alloc s)) cp = Ok (map (ref_row (a_pools (s_alloc s0))) cp)
  /\ masks_feasible (map (ref_row (a_pools (s_alloc s))) cp) (full_masks (map (ref_row (a_pools (s_alloc s))) cp)) = true
  /\ rows_dominated (map (ref_row (a_pools (s_alloc s))) cp) (map (ref_row (a_pools (s_alloc s0))) cp)
  /\ Forall (fun e => is_coupled (a_pools (s_alloc s)) e = true) cp
  /\ Forall (fun e => is_coupled (a_pools (s_alloc s0)) e = true) cp.
Proof.
  intros Hi Hv Hr Hnc Hfit.
  pose proof (reachable_full _ _ _ _ Hi Hv Hr) as HF.
  destruct HF as [HI _]. pose proof (reachable_nodup _ _ _ _ Hi Hr) as Hn.
  destruct (init_static _ _ Hi) as (Hfr & Hall0 & Hw0). destruct (run_static _ _ _ Hr) as [Hall Hws].
  destruct (hr_entries_reachable d s0 ops s Hi Hv Hr rq) as (cp & Hhr & _). rewrite Hfit in Hhr.
  pose proof (hr_entries_coupling _ _ _ _ _ Hhr) as Hcp. cbn [app] in Hcp. fold (coupled_entries (a_pools (s_alloc s)) rq) in Hcp.
  exists cp. split; [exact Hcp|]. split; [exact Hhr|]. split; [rewrite Hws; auto|].
  assert (Hcpl : Forall (fun e => is_coupled (a_pools (s_alloc s)) e = true) cp).
  { apply Forall_forall. intros e He. rewrite Hcp in He. unfold coupled_entries in He. apply filter_In in He. tauto. }
  destruct (rows_dominated_ref _ _ _ _ _ _ HI Hfr Hcpl) as [Hdom Hcpl0].
  split; [apply (solver_rows_now _ _ _ _ _ _ HI Hn Hcpl)|]. split; [rewrite Hall, Hall0; apply (solver_rows_all _ _ Hcpl0)|].
  split; [|auto]. apply full_masks_feasible; auto.
  unfold request_fits in Hfit. rewrite forallb_forall in Hfit. apply forallb_forall. intros e He.
  apply Hfit. rewrite Hcp in He. unfold coupled_entries in He. apply filter_In in He. tauto.
Qed.

(** C16, strict policies, as an equivalence.  In a reachable state of a worker without coupling weights, for the
    first admission test of a request (its yardstick is not cached yet) with at least one strict entry on a
    grouped resource, and answers of the solver that select the minimum number of groups for every coupled entry
    (the reference the monitor solver-suboptimal checks every answer against):
    has_resources_for_request admits the request EXACTLY when the pools contain enough for every entry and every
    coupled entry can be served now with the minimum number of groups of the empty worker. *)
Theorem C16_strict_admission_at_minimum : forall d s0 ops s rq w ok yard,
  init d = Ok s0 -> Forall valid_op ops -> run s0 ops = Ok s ->
  d_coupling d = [] ->
  yard_lookup (a_yard (s_alloc s)) rq = None ->
  existsb (fun e => is_forced (e_req e)) (coupled_entries (a_pools (s_alloc s)) rq) = true ->
  (forall ms, w_adm w = Some ms ->
              minimal_answer (map (ref_row (a_pools (s_alloc s))) (coupled_entries (a_pools (s_alloc s)) rq)) ms) ->
  (forall ms, w_yard w = Some ms ->
              minimal_answer (map (ref_row (a_pools (s_alloc s0))) (coupled_entries (a_pools (s_alloc s)) rq)) ms) ->
  has_resources (s_alloc s) rq w = Ok (ok, yard) ->
  ok = request_fits (a_pools (s_alloc s)) rq
       && forallb (at_min (a_pools (s_alloc s0)) (a_pools (s_alloc s))) (coupled_entries (a_pools (s_alloc s)) rq).
Proof.
  intros d s0 ops s rq w ok yard Hi Hv Hr Hnc Hmiss Hforced Hmin_now Hmin_all Hh.
  destruct (request_fits (a_pools (s_alloc s)) rq) eqn:Hfit.
  2:{ rewrite (admission_refuses_unfit d s0 ops s Hi Hv Hr rq w Hfit) in Hh. inversion Hh; subst. reflexivity. }
  cbn [andb].
  destruct (strict_setting d s0 ops s rq Hi Hv Hr Hnc Hfit) as (cp & -> & Hhr & Hws0 & Hrn & Hra & Hfull & Hdom & Hcpl & Hcpl0).
  set (cp := coupled_entries (a_pools (s_alloc s)) rq) in *.
  assert (Hnf : forallb (fun e => negb (is_forced (e_req e))) cp = false).
  { apply existsb_exists in Hforced. destruct Hforced as (e & He & Hfe).
    destruct (forallb (fun e0 => negb (is_forced (e_req e0))) cp) eqn:E; auto.
    rewrite forallb_forall in E. specialize (E e He). rewrite Hfe in E. discriminate. }
  destruct (strict_admission_shape _ _ _ _ _ _ Hws0 Hhr Hnf Hh) as (rows_now & Hrows & Hcase). rewrite Hmiss in Hcase.
  rewrite Hrn in Hrows. inversion Hrows; subst rows_now. clear Hrows.
  destruct Hcase as [(_ & Hinf & _)|(ms_now & Ha & Hfn & ms_all & rows_all & Hy & Hrows_all & Hfa & -> & _)]; [congruence|].
  rewrite Hra in Hrows_all. inversion Hrows_all; subst rows_all. clear Hrows_all.
  rewrite (counts_iff_at_minimum _ _ _ _ Hdom (Hmin_now _ Ha) (Hmin_all _ Hy)).
  apply row_mins_at_min; auto.
Qed.

(** non-vacuity: groups of 2 and 6 indices (the descriptor of Alloc.Examples.ex_strict_desc) after a scatter of 2
    units (1 and 5 whole indices left): `tight! 2` is at its empty-worker minimum (1 group) and is admitted,
    `tight! 6` needs 2 groups now but 1 on the empty worker and is refused *)
Example strict_admission_example :
  exists s0 s,
    init ex_strict_desc = Ok s0 /\ run s0 [OAlloc [mkEntry 0 (Req Scatter 20000)] no_wit] = Ok s
    /\ d_coupling ex_strict_desc = []
    /\ (let rq := [mkEntry 0 (Req ForceTight 20000)] in let w := mkWitness None (Some [[1]]) (Some [[0]]) [] in
        minimal_answer (map (ref_row (a_pools (s_alloc s))) (coupled_entries (a_pools (s_alloc s)) rq)) [[1]]
        /\ minimal_answer (map (ref_row (a_pools (s_alloc s0))) (coupled_entries (a_pools (s_alloc s)) rq)) [[0]]
        /\ has_resources (s_alloc s) rq w = Ok (true, [(rq, (- GROUP_COST * 1 + 0 - SLACK)%Z)])
        /\ forallb (at_min (a_pools (s_alloc s0)) (a_pools (s_alloc s))) (coupled_entries (a_pools (s_alloc s)) rq) = true)
    /\ (let rq := [mkEntry 0 (Req ForceTight 60000)] in let w := mkWitness None (Some [[0; 1]]) (Some [[1]]) [] in
        minimal_answer (map (ref_row (a_pools (s_alloc s))) (coupled_entries (a_pools (s_alloc s)) rq)) [[0; 1]]
        /\ minimal_answer (map (ref_row (a_pools (s_alloc s0))) (coupled_entries (a_pools (s_alloc s)) rq)) [[1]]
        /\ has_resources (s_alloc s) rq w = Ok (false, [(rq, (- GROUP_COST * 1 + 0 - SLACK)%Z)])
        /\ forallb (at_min (a_pools (s_alloc s0)) (a_pools (s_alloc s))) (coupled_entries (a_pools (s_alloc s)) rq) = false).
Proof.
  eexists. eexists.
  split; [vm_compute; reflexivity|]. split; [vm_compute; reflexivity|]. split; [reflexivity|].
  cbv zeta. repeat split; vm_compute; auto.
Qed.

Print Assumptions C16_strict_admission_at_minimum.
