(** C16 policy shapes - common definitions and lemmas: counting whole indices per group, elementary facts
    about take_indices / best_fraction_match / the fraction helpers, counting lemmas over [seqN]. *)
From Coq Require Import Permutation.
From HQ Require Import Base.Prelude Gen.Consts Alloc.Model Alloc.Spec Alloc.Lemmas Alloc.Group Alloc.Pool Alloc.Inv Alloc.Theorems Alloc.Mirror Alloc.MirrorSystem Alloc.CompleteTight.
Require Import ZifyBool.
Open Scope N_scope.


Definition wc (out : list aidx) (g : N) : N :=
  len (filter (fun ix => (ai_group ix =? g) && (ai_frac ix =? 0)) out).

Lemma whole_count_wc ra g : whole_count ra g = wc (ra_indices ra) g.
Proof. reflexivity. Qed.

Lemma wc_nil g : wc [] g = 0.
Proof. reflexivity. Qed.

Lemma wc_cons ix l g :
  wc (ix :: l) g = (if (ai_group ix =? g) && (ai_frac ix =? 0) then 1 else 0) + wc l g.
Proof.
  unfold wc. cbn [filter]. destruct ((ai_group ix =? g) && (ai_frac ix =? 0)); unfold len; cbn [length]; lia.
Qed.

Lemma wc_app a b g : wc (a ++ b) g = wc a g + wc b g.
Proof. unfold wc. rewrite filter_app, len_app. auto. Qed.

Lemma wc_perm a b g : Permutation a b -> wc a g = wc b g.
Proof. induction 1; rewrite ?wc_cons; lia. Qed.

Lemma wc_whole_same i gi g : wc [mkAidx i gi 0] g = if gi =? g then 1 else 0.
Proof. rewrite wc_cons, wc_nil. cbn [ai_group ai_frac]. rewrite N.eqb_refl, andb_true_r. destruct (gi =? g); lia. Qed.

Lemma wc_frac F g : ai_frac F <> 0 -> wc [F] g = 0.
Proof.
  intros H. rewrite wc_cons, wc_nil. destruct (N.eqb_spec (ai_frac F) 0); [congruence|]. rewrite andb_false_r. lia.
Qed.

Lemma wc_block (l : list N) gi g : wc (map (fun i => mkAidx i gi 0) l) g = if gi =? g then len l else 0.
Proof.
  induction l as [|i l IH]; cbn [map].
  - rewrite wc_nil. destruct (gi =? g); reflexivity.
  - rewrite wc_cons, IH. cbn [ai_group ai_frac]. rewrite N.eqb_refl, andb_true_r.
    unfold len. cbn [length]. destruct (gi =? g); lia.
Qed.

Definition nwhole (out : list aidx) : N := len (filter (fun ix => ai_frac ix =? 0) out).

Lemma nwhole_app a b : nwhole (a ++ b) = nwhole a + nwhole b.
Proof. unfold nwhole. rewrite filter_app, len_app. auto. Qed.

Lemma nwhole_cons ix l : nwhole (ix :: l) = (if ai_frac ix =? 0 then 1 else 0) + nwhole l.
Proof. unfold nwhole. cbn [filter]. destruct (ai_frac ix =? 0); unfold len; cbn [length]; lia. Qed.

Lemma nwhole_nil : nwhole [] = 0.
Proof. reflexivity. Qed.

Lemma nwhole_perm a b : Permutation a b -> nwhole a = nwhole b.
Proof. induction 1; rewrite ?nwhole_cons; lia. Qed.


Definition lenidx (gs : list group) (gi : N) : N :=
  match get_at gs gi with Ok g => len (g_idx g) | _ => 0 end.

Lemma lenidx_get gs gi g : get_at gs gi = Ok g -> lenidx gs gi = len (g_idx g).
Proof. unfold lenidx. intros ->. auto. Qed.

Lemma lenidx_set_at_same gs gi g g' : get_at gs gi = Ok g -> lenidx (set_at gs gi g') gi = len (g_idx g').
Proof. intros H. unfold lenidx. rewrite (get_at_set_at_same' _ _ _ _ H). auto. Qed.

Lemma lenidx_set_at_other gs gi gj g' : gi <> gj -> lenidx (set_at gs gi g') gj = lenidx gs gj.
Proof. intros H. unfold lenidx. rewrite get_at_set_at_other by auto. auto. Qed.

Lemma lenidx_nth gs gi : lenidx gs gi = match nth_error gs (nat_of gi) with Some g => len (g_idx g) | None => 0 end.
Proof.
  unfold lenidx. destruct (get_at gs gi) as [g| |] eqn:E.
  - apply get_at_ok in E. destruct E as [_ ->]. auto.
  - exfalso. eapply get_at_not_disabled; eauto.
  - unfold get_at in E. destruct (N.ltb_spec gi (len gs)).
    + destruct (nth_res_lt gs (nat_of gi)) as [x Hx]; [unfold len, nat_of in *; lia|]. congruence.
    + assert (X : nth_error gs (nat_of gi) = None) by (apply nth_error_None; unfold len, nat_of in *; lia).
      rewrite X. auto.
Qed.

Lemma get_at_range {A} (l : list A) i x : get_at l i = Ok x -> i < len l.
Proof. intros H. apply get_at_ok in H. tauto. Qed.

Lemma get_at_fun {A} (l : list A) i x y : get_at l i = Ok x -> get_at l i = Ok y -> x = y.
Proof. congruence. Qed.


Lemma length_seqN n : forall k, length (seqN k n) = n.
Proof. induction n; intros k; simpl; auto. Qed.

Lemma nth_error_seqN n : forall k j x, nth_error (seqN k n) j = Some x -> x = k + N.of_nat j.
Proof.
  induction n as [|n IH]; intros k j x H.
  - destruct j; discriminate.
  - destruct j as [|j]; simpl in H.
    + inversion H; subst. lia.
    + apply IH in H. lia.
Qed.

Lemma in_seqN n : forall k x, In x (seqN k n) <-> k <= x < k + N.of_nat n.
Proof.
  induction n as [|n IH]; intros k x; simpl.
  - lia.
  - rewrite IH. lia.
Qed.

Lemma get_at_seqN n j x : get_at (seqN 0 n) j = Ok x -> x = j.
Proof.
  intros H. apply get_at_ok in H. destruct H as [_ H]. apply nth_error_seqN in H. unfold nat_of in H. lia.
Qed.

Lemma get_at_seqN_lt n j : j < N.of_nat n -> get_at (seqN 0 n) j = Ok j.
Proof.
  intros H. destruct (get_at_lt (seqN 0 n) j) as [x Hx].
  - unfold len. rewrite length_seqN. auto.
  - rewrite Hx. f_equal. eapply get_at_seqN; eauto.
Qed.

Lemma nodup_seqN n : forall k, NoDup (seqN k n).
Proof.
  induction n as [|n IH]; intros k; simpl; constructor; auto.
  rewrite in_seqN. lia.
Qed.


Lemma sum_ge_count {A} (f : A -> N) l : len (filter (fun j => negb (f j =? 0)) l) <= sumN (map f l).
Proof.
  induction l as [|x l IH]; cbn [map filter]; rewrite ?sumN_cons.
  - unfold len. simpl. rewrite sumN_nil. lia.
  - destruct (N.eqb_spec (f x) 0); cbn [negb]; unfold len in *; cbn [length]; lia.
Qed.

Lemma sum_eq_count {A} (f : A -> N) l : (forall j, In j l -> f j <= 1) ->
  sumN (map f l) = len (filter (fun j => negb (f j =? 0)) l).
Proof.
  induction l as [|x l IH]; intros H; cbn [map filter]; rewrite ?sumN_cons.
  - reflexivity.
  - rewrite IH by (intros; apply H; right; auto).
    assert (f x <= 1) by (apply H; left; auto).
    destruct (N.eqb_spec (f x) 0); cbn [negb]; unfold len in *; cbn [length]; lia.
Qed.

Lemma count_le {A} (p q : A -> bool) l : (forall j, In j l -> p j = true -> q j = true) ->
  len (filter p l) <= len (filter q l).
Proof.
  induction l as [|x l IH]; intros H; cbn [filter]; [lia|].
  assert (IH' : len (filter p l) <= len (filter q l)) by (apply IH; intros; apply H; auto; right; auto).
  destruct (p x) eqn:Ep.
  - rewrite (H x) by (auto; left; auto). unfold len in *; cbn [length]; lia.
  - destruct (q x); unfold len in *; cbn [length]; lia.
Qed.

Lemma count_ext {A} (p q : A -> bool) l : (forall j, In j l -> p j = q j) -> len (filter p l) = len (filter q l).
Proof.
  intros H. assert (len (filter p l) <= len (filter q l)) by (apply count_le; intros j Hj; rewrite H; auto).
  assert (len (filter q l) <= len (filter p l)) by (apply count_le; intros j Hj; rewrite H; auto).
  lia.
Qed.

Lemma count_positions {A} (p : A -> bool) (f : N -> bool) (l : list A) : forall k,
  (forall j x, nth_error l j = Some x -> f (k + N.of_nat j) = p x) ->
  len (filter p l) = len (filter f (seqN k (length l))).
Proof.
  induction l as [|x l IH]; intros k H; cbn [filter length seqN]; [reflexivity|].
  assert (E0 : f k = p x) by (rewrite <- (H O x eq_refl); f_equal; lia).
  rewrite E0.
  assert (IH' : len (filter p l) = len (filter f (seqN (k + 1) (length l)))).
  { apply IH. intros j y Hy. rewrite <- (H (S j) y Hy). f_equal. lia. }
  destruct (p x); unfold len in *; cbn [length]; lia.
Qed.

Lemma nwhole_sum_wc out n : Forall (fun ix => ai_group ix < N.of_nat n) out ->
  nwhole out = sumN (map (wc out) (seqN 0 n)).
Proof.
  assert (Z : forall l, sumN (map (wc []) l) = 0) by (intros l; apply sumN_map_zero; intros; apply wc_nil).
  assert (One : forall g m k, sumN (map (fun j => if g =? j then 1 else 0) (seqN k m)) = if (k <=? g) && (g <? k + N.of_nat m) then 1 else 0).
  { intros g m. induction m as [|m IHm]; intros k; cbn [seqN map].
    - rewrite sumN_nil. destruct (N.leb_spec k g), (N.ltb_spec g (k + N.of_nat 0)); simpl; lia.
    - rewrite sumN_cons, IHm.
      destruct (N.eqb_spec g k), (N.leb_spec (k + 1) g), (N.ltb_spec g (k + 1 + N.of_nat m)), (N.leb_spec k g), (N.ltb_spec g (k + N.of_nat (S m))); simpl; lia. }
  induction out as [|ix out IH]; intros H.
  - rewrite Z. reflexivity.
  - inversion H as [|? ? Hix Hout]; subst. rewrite nwhole_cons, (IH Hout).
    assert (E : forall l, sumN (map (wc (ix :: out)) l)
                          = sumN (map (fun j => if ai_group ix =? j then (if ai_frac ix =? 0 then 1 else 0) else 0) l) + sumN (map (wc out) l)).
    { induction l as [|j l IHl]; cbn [map]; rewrite ?sumN_cons, ?sumN_nil; [lia|].
      rewrite IHl, wc_cons. destruct (ai_group ix =? j), (ai_frac ix =? 0); simpl; lia. }
    rewrite E. f_equal.
    destruct (ai_frac ix =? 0).
    + rewrite One. destruct (N.leb_spec 0 (ai_group ix)), (N.ltb_spec (ai_group ix) (0 + N.of_nat n)); simpl; lia.
    + symmetry. apply sumN_map_zero. intros j _. destruct (ai_group ix =? j); auto.
Qed.


Lemma take_indices_inv st gid units out st' out' :
  take_indices st gid units out = Ok (st', out') ->
  units <= len st /\ st' = skipn (nat_of units) st
  /\ out' = out ++ map (fun i => mkAidx i gid 0) (firstn (nat_of units) st).
Proof.
  unfold take_indices. destruct (N.ltb_spec (len st) units) as [Hlt|Hge]; [discriminate|].
  intros H; inversion H; subst. auto.
Qed.

Lemma len_firstn {A} (l : list A) units : units <= len l -> len (firstn (nat_of units) l) = units.
Proof. intros H. unfold len, nat_of in *. rewrite firstn_length. lia. Qed.

Lemma len_skipn {A} (l : list A) units : len (skipn (nat_of units) l) = len l - units.
Proof. unfold len, nat_of. rewrite skipn_length. lia. Qed.

Lemma incl_skipn {A} (l : list A) k : incl (skipn k l) l.
Proof. intros x Hx. rewrite <- (firstn_skipn k l). apply in_or_app. auto. Qed.

(** best_fraction_match picks an entry with the LEAST fitting value; None only if nothing fits *)
Lemma bfm_some_min m fr wit i f :
  best_fraction_match m fr wit = Ok (Some (i, f)) -> cand_min m fr = Some f /\ fget m i = Some f.
Proof.
  unfold best_fraction_match. destruct (cand_min m fr) as [mn|] eqn:E; [|discriminate].
  destruct wit as [j|]; [|discriminate]. destruct (fget m j) as [v|] eqn:Ej; [|discriminate].
  destruct (N.eqb_spec v mn); [|discriminate]. intros H; inversion H; subst. auto.
Qed.

Lemma bfm_none m fr wit : best_fraction_match m fr wit = Ok None -> cand_min m fr = None.
Proof.
  unfold best_fraction_match. destruct (cand_min m fr) as [mn|] eqn:E; auto.
  destruct wit as [j|]; [|discriminate]. destruct (fget m j) as [v|]; [|discriminate].
  destruct (v =? mn); discriminate.
Qed.

Lemma scatter_loop_done fuel gs sel pos wit out : scatter_loop fuel gs sel 0 0 pos wit out = Ok (gs, out).
Proof. destruct fuel; reflexivity. Qed.

Lemma swap_to_last_perm {A} (l : list A) : forall k, Permutation (swap_to_last l k) l.
Proof.
  induction l as [|x l IH]; intros k; [destruct k; apply Permutation_refl|].
  destruct k as [|k]; cbn [swap_to_last].
  - destruct (rev l) as [|y r] eqn:E.
    + assert (l = []) by (destruct l; auto; simpl in E; destruct (rev l); discriminate). subst. apply Permutation_refl.
    + assert (Hl : l = rev r ++ [y]) by (rewrite <- (rev_involutive l), E; reflexivity). rewrite Hl.
      change (y :: rev r ++ [x]) with ((y :: rev r) ++ [x]).
      eapply perm_trans; [apply Permutation_app_comm|]. cbn [app]. apply perm_skip.
      apply Permutation_cons_append.
  - apply perm_skip. apply IH.
Qed.

Lemma in_dedup x l : In x (dedup l) <-> In x l.
Proof.
  induction l as [|y l IH]; simpl; [tauto|].
  destruct (memN y l) eqn:E.
  - rewrite IH. apply memN_in in E. split; auto. intros [->|H]; auto.
  - simpl. rewrite IH. tauto.
Qed.

Lemma nodup_dedup l : NoDup (dedup l).
Proof.
  induction l as [|y l IH]; simpl; [constructor|].
  destruct (memN y l) eqn:E; auto. constructor; auto. rewrite in_dedup. apply memN_false. auto.
Qed.

Lemma filter_at_most_one (f : N -> bool) l a : NoDup l -> (forall x, In x l -> f x = true -> x = a) ->
  len (filter f l) <= 1.
Proof.
  induction l as [|y l IH]; intros Hnd H; cbn [filter]; [unfold len; simpl; lia|].
  inversion Hnd as [|? ? Hn Hd]; subst.
  destruct (f y) eqn:E.
  - assert (y = a) by (apply H; auto; left; auto). subst y.
    assert (Z : filter f l = []).
    { destruct (filter f l) as [|z r] eqn:Ef; auto. exfalso.
      assert (Hz : In z (filter f l)) by (rewrite Ef; left; auto). apply filter_In in Hz. destruct Hz as [Hz1 Hz2].
      assert (z = a) by (apply H; auto; right; auto). subst. auto. }
    rewrite Z. unfold len; simpl; lia.
  - apply IH; auto. intros x Hx. apply H. right; auto.
Qed.
