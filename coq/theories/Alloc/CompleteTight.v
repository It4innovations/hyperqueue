(** The check [claim_ok] never rejects what the modelled claim functions compute (so a step of the model is
    [Disabled] only for a witness the model rejects, never because of the gate): index pools, sum pools,
    the scatter claim and the tight claim (claim_compact_from_groups) on group pools. *)
From Coq Require Import Permutation.
From HQ Require Import Base.Prelude Gen.Consts Alloc.Model Alloc.Spec Alloc.Lemmas Alloc.Group Alloc.Pool Alloc.Inv Alloc.Theorems Alloc.Mirror Alloc.MirrorSystem.
Require Import ZifyBool.
Open Scope N_scope.

Lemma list_eqb_refl {A} (eqb : A -> A -> bool) (Hr : forall x, eqb x x = true) l : list_eqb eqb l l = true.
Proof. induction l; simpl; auto. rewrite Hr, IHl. auto. Qed.
Lemma group_eqb_refl g : group_eqb g g = true.
Proof.
  unfold group_eqb. rewrite (list_eqb_refl N.eqb N.eqb_refl).
  rewrite (list_eqb_refl pair_eqb); auto. intros [a b]. unfold pair_eqb. simpl. rewrite !N.eqb_refl. auto.
Qed.
Lemma groups_eqb_refl gs : list_eqb group_eqb gs gs = true.
Proof. apply list_eqb_refl. apply group_eqb_refl. Qed.

Lemma cand_min_ge m fr mn : cand_min m fr = Some mn -> fr <= mn.
Proof.
  revert mn; induction m as [|[k v] m IH]; simpl; intros mn H; [discriminate|].
  destruct (N.leb_spec fr v).
  - destruct (cand_min m fr) as [w|]; inversion H; subst; [specialize (IH w eq_refl); lia | lia].
  - auto.
Qed.

Lemma bfm_some m fr wit i f : best_fraction_match m fr wit = Ok (Some (i, f)) -> fget m i = Some f /\ fr <= f.
Proof.
  unfold best_fraction_match. destruct (cand_min m fr) as [mn|] eqn:E; [|discriminate].
  destruct wit as [j|]; [|discriminate]. destruct (fget m j) as [v|] eqn:Ej; [|discriminate].
  destruct (N.eqb_spec v mn); [|discriminate]. intros H; inversion H; subst. split; auto. eapply cand_min_ge; eauto.
Qed.

Lemma take_heads n : forall gs gi g,
  get_at gs gi = Ok g -> (n <= length (g_idx g))%nat ->
  take_all gs (map (fun i => mkAidx i gi 0) (firstn n (g_idx g))) = Some (set_at gs gi (mkGroup (skipn n (g_idx g)) (g_fr g))).
Proof.
  induction n as [|n IH]; intros gs gi g Hg Hn.
  - simpl. f_equal. symmetry. apply set_at_same. destruct g; auto.
  - destruct g as [[|i st] fr]; simpl in Hn; [lia|]. simpl firstn. simpl skipn. cbn [map take_all ai_group].
    rewrite Hg. unfold take1. cbn [ai_frac ai_index g_idx g_fr]. rewrite N.eqb_refl. simpl existsb. rewrite N.eqb_refl. simpl.
    rewrite N.eqb_refl.
    pose proof (IH (set_at gs gi (mkGroup st fr)) gi (mkGroup st fr)) as X. simpl in X.
    rewrite X; [|eapply get_at_set_at_same'; eauto | lia].
    rewrite set_at_set_at. auto.
Qed.

Lemma take_indices_spec gs gi g units out st out' :
  get_at gs gi = Ok g -> take_indices (g_idx g) gi units out = Ok (st, out') ->
  exists ws, out' = out ++ ws /\ Forall whole ws /\ len ws = units /\ Forall (fun ix => ai_group ix = gi) ws
             /\ take_all gs ws = Some (set_at gs gi (mkGroup st (g_fr g))).
Proof.
  intros Hg Ht. unfold take_indices in Ht. destruct (N.ltb_spec (len (g_idx g)) units); [discriminate|].
  inversion Ht; subst. eexists. split; [reflexivity|].
  assert (Hn : (nat_of units <= length (g_idx g))%nat) by (unfold len, nat_of in *; lia).
  split; [apply Forall_forall; intros x Hx; apply in_map_iff in Hx; destruct Hx as [? [<- _]]; reflexivity|].
  split; [unfold len; rewrite map_length, firstn_length; unfold len, nat_of in *; lia|].
  split; [apply Forall_forall; intros x Hx; apply in_map_iff in Hx; destruct Hx as [? [<- _]]; reflexivity|].
  apply take_heads; auto.
Qed.

Lemma take_fraction_spec gs gi g fr wit out g' out' :
  get_at gs gi = Ok g -> gwf g -> fr < FPU ->
  take_fraction_index_or_split g fr gi wit out = Ok (g', out') ->
  (fr = 0 /\ g' = g /\ out' = out)
  \/ (fr <> 0 /\ exists F, out' = out ++ [F] /\ ai_frac F = fr /\ ai_group F = gi /\ take_all gs [F] = Some (set_at gs gi g')).
Proof.
  intros Hg (Hnd & Hndk & Hsf & Hlt) Hfr Ht. unfold take_fraction_index_or_split in Ht.
  destruct (N.eqb_spec fr 0) as [Hz|Hz]; [inversion Ht; subst; auto|]. right. split; auto.
  destruct (best_fraction_match (g_fr g) fr wit) as [[[i f]|]| |] eqn:Eb; simpl in Ht; try discriminate.
  - inversion Ht; subst. apply bfm_some in Eb. destruct Eb as [Ei Hle].
    eexists. split; [reflexivity|]. simpl. repeat split; auto. rewrite Hg. unfold take1. simpl.
    destruct (N.eqb_spec fr 0); [congruence|]. rewrite Ei. destruct (N.leb_spec fr f); [auto|lia].
  - destruct (g_idx g) as [|i rest] eqn:Es; [discriminate|]. inversion Ht; subst.
    eexists. split; [reflexivity|]. simpl. repeat split; auto. rewrite Hg. unfold take1. simpl.
    destruct (N.eqb_spec fr 0); [congruence|]. rewrite (Hsf i) by (first [left; reflexivity | rewrite Es; left; reflexivity]).
    rewrite Es. simpl. rewrite N.eqb_refl. simpl. destruct (N.ltb_spec fr FPU); [|lia]. rewrite ?N.eqb_refl. auto.
Qed.

Lemma shape_cons_whole ix rest : whole ix -> shape_ok rest = true -> shape_ok (ix :: rest) = true.
Proof.
  unfold whole. intros Hx H. destruct rest as [|y rest].
  - simpl. rewrite Hx. reflexivity.
  - change (shape_ok (ix :: y :: rest)) with ((ai_frac ix =? 0) && shape_ok (y :: rest)). rewrite Hx, N.eqb_refl, H. auto.
Qed.

Lemma shape_ok_app ws fs :
  Forall whole ws -> (fs = [] \/ exists F, fs = [F] /\ ai_frac F < FPU) -> shape_ok (ws ++ fs) = true.
Proof.
  intros Hw Hf. induction Hw as [|ix ws Hx Hw IH].
  - destruct Hf as [->|(F & -> & HF)]; simpl; auto. lia.
  - simpl app. apply shape_cons_whole; auto.
Qed.

Lemma total_app ws fs fr :
  Forall whole ws -> (fr = 0 /\ fs = [] \/ fr <> 0 /\ exists F, fs = [F] /\ ai_frac F = fr) ->
  fold_right N.add 0 (map held_ix (ws ++ fs)) = len ws * FPU + fr.
Proof.
  intros Hw Hf. rewrite ra_total_sum, map_app, sumN_app, (sum_whole _ Hw).
  destruct Hf as [[-> ->]|(Hz & F & -> & <-)]; cbn [map]; rewrite ?sumN_cons, ?sumN_nil; [lia|].
  unfold held_ix. destruct (N.eqb_spec (ai_frac F) 0); [congruence|lia].
Qed.

Theorem claim_complete_indices full g rid rq wit p' ra :
  gwf g -> pool_claim (PIndices full g) rid rq wit = Ok (p', ra) -> claim_ok (PIndices full g) p' rid rq ra = true.
Proof.
  intros Hwf Hc. unfold pool_claim in Hc. destruct (split_recompose (req_amount rq full)) as [Hrec Hfr].
  destruct (split (req_amount rq full)) as [units fr] eqn:Es. simpl in Hrec, Hfr.
  destruct (take_indices (g_idx g) 0 units []) as [[st out1]| |] eqn:Et; cbn [bind] in Hc; try discriminate.
  destruct (take_fraction_index_or_split (mkGroup st (g_fr g)) fr 0 wit out1) as [[g2 out2]| |] eqn:Ef; cbn [bind] in Hc; try discriminate.
  inversion Hc; subst. clear Hc.
  destruct (take_indices_spec [g] 0 g units [] st out1 (get_at_single g) Et) as (ws & E1 & Hw & Hl & Hg0 & Hta).
  simpl in E1. subst out1. change (set_at [g] 0 (mkGroup st (g_fr g))) with [mkGroup st (g_fr g)] in Hta.
  assert (Hwf1 : gwf (mkGroup st (g_fr g))).
  { assert (X : gs_wf [mkGroup st (g_fr g)]) by (eapply take_all_wf; [|eauto]; constructor; auto). inversion X; auto. }
  destruct (take_fraction_spec [mkGroup st (g_fr g)] 0 _ fr wit ws g2 out2 (get_at_single _) Hwf1 Hfr Ef) as [(Hz & -> & ->)|(Hz & F & -> & HF & HgF & HtF)].
  - unfold claim_ok. cbn [ra_res ra_amount ra_indices pool_full_size pool_groups]. rewrite !N.eqb_refl. simpl andb.
    assert (S1 : shape_ok ws = true) by (rewrite <- (app_nil_r ws); apply shape_ok_app; auto).
    assert (S2 : ra_total (mkRalloc rid (req_amount rq full) ws) = req_amount rq full).
    { unfold ra_total; cbn [ra_indices]. rewrite <- (app_nil_r ws). rewrite (total_app ws [] 0) by auto. lia. }
    rewrite S1, S2, N.eqb_refl, Hta. simpl. rewrite group_eqb_refl. auto.
  - unfold claim_ok. cbn [ra_res ra_amount ra_indices pool_full_size pool_groups]. rewrite !N.eqb_refl. simpl andb.
    assert (S1 : shape_ok (ws ++ [F]) = true) by (apply shape_ok_app; auto; right; exists F; split; auto; lia).
    assert (S2 : ra_total (mkRalloc rid (req_amount rq full) (ws ++ [F])) = req_amount rq full).
    { unfold ra_total; cbn [ra_indices]. rewrite (total_app ws [F] fr) by (auto; right; split; auto; exists F; auto). lia. }
    rewrite S1, S2, N.eqb_refl. rewrite take_all_app, Hta.
    change (set_at [mkGroup st (g_fr g)] 0 g2) with [g2] in HtF. rewrite HtF. simpl. rewrite group_eqb_refl. auto.
Qed.

Theorem claim_complete_sum full free rid rq wit p' ra :
  pool_claim (PSum full free) rid rq wit = Ok (p', ra) -> claim_ok (PSum full free) p' rid rq ra = true.
Proof.
  simpl. destruct (N.ltb_spec free (req_amount rq full)); [discriminate|]. intros Hx; inversion Hx; subst.
  unfold claim_ok. simpl. rewrite !N.eqb_refl. simpl. destruct (N.leb_spec (req_amount rq full) free); [auto|lia].
Qed.

Lemma take1_whole g ix : whole ix ->
  take1 g ix = if memN (ai_index ix) (g_idx g) then Some (mkGroup (removeN (ai_index ix) (g_idx g)) (g_fr g)) else None.
Proof. unfold whole. intros H. rewrite take1_memN. cbv zeta. rewrite H, N.eqb_refl. auto. Qed.

Lemma aidx_eta ix i g f : ai_index ix = i -> ai_group ix = g -> ai_frac ix = f -> ix = mkAidx i g f.
Proof. destruct ix; simpl; intros; subst; auto. Qed.

Definition obind {A B} (o : option A) (f : A -> option B) : option B := match o with Some a => f a | None => None end.

Lemma take1_comm g x y : whole x -> whole y -> ai_index x <> ai_index y ->
  obind (take1 g x) (fun g1 => take1 g1 y) = obind (take1 g y) (fun g1 => take1 g1 x).
Proof.
  intros Hx Hy Hne. rewrite !take1_whole by auto.
  destruct (memN (ai_index x) (g_idx g)) eqn:Mx, (memN (ai_index y) (g_idx g)) eqn:My; simpl;
    rewrite ?take1_whole by auto; simpl.
  - rewrite ?memN_removeN_other by auto. rewrite ?memN_removeN_other by (intros E; apply Hne; auto).
    rewrite Mx, My. rewrite removeN_comm. auto.
  - rewrite ?memN_removeN_other by auto. rewrite ?memN_removeN_other by (intros E; apply Hne; auto). rewrite ?My. auto.
  - rewrite ?memN_removeN_other by auto. rewrite ?memN_removeN_other by (intros E; apply Hne; auto). rewrite ?Mx. auto.
  - auto.
Qed.

Lemma take_two_same gs x y : ai_group x = ai_group y ->
  take_all gs [x; y] =
  match get_at gs (ai_group x) with
  | Ok g => match obind (take1 g x) (fun g1 => take1 g1 y) with Some g2 => Some (set_at gs (ai_group x) g2) | None => None end
  | _ => None
  end.
Proof.
  intros Eg. simpl. rewrite <- Eg. destruct (get_at gs (ai_group x)) as [g| |] eqn:Hg; auto.
  destruct (take1 g x) as [g1|]; simpl; auto.
  rewrite (get_at_set_at_same' _ _ _ _ Hg). destruct (take1 g1 y); auto. rewrite set_at_set_at. auto.
Qed.

Lemma take_swap_whole gs x y : whole x -> whole y -> take_all gs [x; y] = take_all gs [y; x].
Proof.
  intros Hx Hy. destruct (N.eq_dec (ai_group x) (ai_group y)) as [Eg|Eg].
  - destruct (N.eq_dec (ai_index x) (ai_index y)) as [Ei|Ei].
    + assert (x = y). { rewrite (aidx_eta x _ _ _ eq_refl eq_refl Hx). rewrite (aidx_eta y _ _ _ eq_refl eq_refl Hy). congruence. }
      subst; auto.
    + rewrite (take_two_same gs x y Eg), (take_two_same gs y x (eq_sym Eg)). rewrite <- Eg.
      destruct (get_at gs (ai_group x)); auto. rewrite (take1_comm a x y); auto.
  - simpl.
    destruct (get_at gs (ai_group x)) as [gx| |] eqn:Hgx; destruct (get_at gs (ai_group y)) as [gy| |] eqn:Hgy; auto;
      try (destruct (take1 gx x); auto; rewrite get_at_set_at_other by auto; rewrite Hgy; auto; fail);
      try (destruct (take1 gy y); auto; rewrite get_at_set_at_other by auto; rewrite Hgx; auto; fail).
    destruct (take1 gx x) as [gx'|] eqn:Tx; destruct (take1 gy y) as [gy'|] eqn:Ty;
      rewrite ?get_at_set_at_other by auto; rewrite ?Hgx, ?Hgy, ?Tx, ?Ty; auto.
    rewrite set_at_comm by auto. auto.
Qed.

Lemma take_all_cons gs ix l :
  take_all gs (ix :: l) = match take_all gs [ix] with Some gs1 => take_all gs1 l | None => None end.
Proof. simpl. destruct (get_at gs (ai_group ix)); auto. destruct (take1 a ix); auto. Qed.

Lemma take_all_perm_whole a b : Permutation a b -> Forall whole a -> forall gs, take_all gs a = take_all gs b.
Proof.
  induction 1 as [|x l l' P IH|x y l|l l' l'' P1 IH1 P2 IH2]; intros Hw gs; auto.
  - inversion Hw; subst. rewrite (take_all_cons gs x l), (take_all_cons gs x l'). destruct (take_all gs [x]); auto.
  - inversion Hw as [|? ? Hy Hw']; subst. inversion Hw' as [|? ? Hx Hw'']; subst.
    change (y :: x :: l) with ([y; x] ++ l). change (x :: y :: l) with ([x; y] ++ l).
    rewrite !take_all_app. rewrite (take_swap_whole gs y x); auto.
  - rewrite IH1 by auto. apply IH2. eapply Permutation_Forall; eauto.
Qed.

Lemma insert_before_frac w X F : whole w -> ai_frac F <> 0 ->
  insert_sorted aidx_le w (X ++ [F]) = insert_sorted aidx_le w X ++ [F].
Proof.
  unfold whole. intros Hw HF. induction X as [|x X IH]; simpl.
  - unfold aidx_le. rewrite Hw. destruct (N.ltb_spec 0 (ai_frac F)); [auto|lia].
  - destruct (aidx_le w x); simpl; auto. rewrite IH. auto.
Qed.

Lemma isort_whole_frac ws F : Forall whole ws -> ai_frac F <> 0 -> isort aidx_le (ws ++ [F]) = isort aidx_le ws ++ [F].
Proof.
  intros Hw HF. induction Hw as [|w ws Hx Hw IH]; simpl; auto.
  rewrite IH. apply insert_before_frac; auto.
Qed.

Lemma scatter_loop_spec fuel : forall gs sel units fr pos wit out gs' out',
  gs_wf gs -> fr < FPU ->
  scatter_loop fuel gs sel units fr pos wit out = Ok (gs', out') ->
  exists ws fs, out' = out ++ ws ++ fs /\ Forall whole ws /\ len ws = units
    /\ (fr = 0 /\ fs = [] \/ fr <> 0 /\ exists F, fs = [F] /\ ai_frac F = fr)
    /\ take_all gs (ws ++ fs) = Some gs'.
Proof.
  induction fuel as [|fuel IH]; intros gs sel units fr pos wit out gs' out' Hwf Hfr Hl; simpl in Hl.
  - destruct (N.eqb_spec units 0); destruct (N.eqb_spec fr 0); simpl in Hl; try discriminate.
    inversion Hl; subst. exists [], []. rewrite !app_nil_r. repeat split; auto.
  - destruct (N.eqb_spec units 0) as [Hu|Hu]; [destruct (N.eqb_spec fr 0) as [Hf0|Hf0]|]; simpl in Hl.
    + inversion Hl; subst. exists [], []. rewrite !app_nil_r. repeat split; auto.
    + destruct (match sel with Some s => get_at s pos | None => Ok pos end) as [gi| |] eqn:Egi; simpl in Hl; try discriminate.
      destruct (get_at gs gi) as [g| |] eqn:Eg; simpl in Hl; try discriminate.
      subst units. destruct (N.ltb_spec 0 0); [lia|].
      assert (Hgw : gwf g) by (apply get_at_ok in Eg; destruct Eg; eapply Forall_nth; eauto).
      destruct (best_fraction_match (g_fr g) fr wit) as [[[i f]|]| |] eqn:Eb; simpl in Hl; try discriminate.
      * apply bfm_some in Eb. destruct Eb as [Ei Hle].
        destruct fuel; simpl in Hl; rewrite ?N.eqb_refl in Hl; simpl in Hl; inversion Hl; subst;
          (exists [], [mkAidx i gi fr]; split; [reflexivity|]; split; [constructor|]; split; [reflexivity|];
           split; [right; split; auto; eexists; split; reflexivity|];
           simpl; rewrite Eg; unfold take1; simpl; destruct (N.eqb_spec fr 0); [congruence|]; rewrite Ei;
           destruct (N.leb_spec fr f); [auto|lia]).
      * destruct (g_idx g) as [|i rest] eqn:Es.
        -- eapply IH; eauto.
        -- destruct Hgw as (Hnd & Hndk & Hsf & Hlt).
           destruct fuel; simpl in Hl; rewrite ?N.eqb_refl in Hl; simpl in Hl; inversion Hl; subst;
             (exists [], [mkAidx i gi fr]; split; [reflexivity|]; split; [constructor|]; split; [reflexivity|];
              split; [right; split; auto; eexists; split; reflexivity|];
              simpl; rewrite Eg; unfold take1; simpl; destruct (N.eqb_spec fr 0); [congruence|];
              rewrite (Hsf i) by (rewrite Es; left; auto); rewrite Es; simpl; rewrite N.eqb_refl; simpl;
              destruct (N.ltb_spec fr FPU); [|lia]; rewrite ?N.eqb_refl; auto).
    + destruct (match sel with Some s => get_at s pos | None => Ok pos end) as [gi| |] eqn:Egi; simpl in Hl; try discriminate.
      destruct (get_at gs gi) as [g| |] eqn:Eg; simpl in Hl; try discriminate.
      destruct (N.ltb_spec 0 units); [|lia].
      destruct (g_idx g) as [|i rest] eqn:Es.
      * eapply IH; eauto.
      * assert (Hgw : gwf g) by (apply get_at_ok in Eg; destruct Eg; eapply Forall_nth; eauto).
        assert (Ht1 : take_all gs [mkAidx i gi 0] = Some (set_at gs gi (mkGroup rest (g_fr g)))).
        { simpl. rewrite Eg. unfold take1. simpl. rewrite Es. simpl. rewrite ?N.eqb_refl. simpl. rewrite ?N.eqb_refl. auto. }
        assert (Hwf1 : gs_wf (set_at gs gi (mkGroup rest (g_fr g)))) by (eapply take_all_wf; eauto).
        destruct (IH _ _ _ _ _ _ _ _ _ Hwf1 Hfr Hl) as (ws & fs & E & Hw & Hlen & Hfs & Hta).
        exists (mkAidx i gi 0 :: ws), fs. split; [rewrite E, <- app_assoc; reflexivity|].
        split; [constructor; auto; reflexivity|]. split; [unfold len in *; simpl length; lia|]. split; auto.
        change ((mkAidx i gi 0 :: ws) ++ fs) with ([mkAidx i gi 0] ++ (ws ++ fs)). rewrite take_all_app, Ht1. auto.
Qed.

Lemma len_perm {A} (a b : list A) : Permutation a b -> len a = len b.
Proof. intros P. unfold len. rewrite (Permutation_length P). auto. Qed.

Lemma claim_scatter_complete gs sel a wit gs' out :
  gs_wf gs -> claim_scatter_from_groups a gs sel wit = Ok (gs', out) ->
  shape_ok out = true /\ fold_right N.add 0 (map held_ix out) = a /\ take_all gs out = Some gs'.
Proof.
  intros Hwf Hc. unfold claim_scatter_from_groups in Hc.
  destruct (split_recompose a) as [Hrec Hfr]. destruct (split a) as [units fr] eqn:Es. simpl in Hrec, Hfr.
  destruct (scatter_loop (scatter_fuel gs sel) gs sel units fr 0 wit []) as [[gs1 raw]| |] eqn:El; cbn [bind] in Hc; try discriminate.
  inversion Hc; subst gs1 out. clear Hc.
  destruct (scatter_loop_spec _ _ _ _ _ _ _ _ _ _ Hwf Hfr El) as (ws & fs & E & Hw & Hlen & Hfs & Hta).
  simpl in E. subst raw.
  assert (Hp : Permutation (isort aidx_le ws) ws) by apply isort_perm.
  assert (Hws : Forall whole (isort aidx_le ws)) by (eapply Permutation_Forall; [apply Permutation_sym; eauto|auto]).
  destruct Hfs as [[Hz ->]|(Hz & F & -> & HF)].
  - rewrite app_nil_r in *. split; [rewrite <- (app_nil_r (isort aidx_le ws)); apply shape_ok_app; auto|].
    split.
    + rewrite <- (app_nil_r (isort aidx_le ws)). rewrite (total_app _ [] 0) by auto. rewrite (len_perm _ _ Hp). lia.
    + rewrite (take_all_perm_whole _ _ Hp Hws). auto.
  - rewrite isort_whole_frac by (auto; congruence).
    split; [apply shape_ok_app; auto; right; exists F; split; auto; lia|].
    split.
    + rewrite (total_app _ [F] fr) by (auto; right; split; auto; exists F; auto). rewrite (len_perm _ _ Hp). lia.
    + rewrite take_all_app in *. rewrite (take_all_perm_whole _ _ Hp Hws). auto.
Qed.

Lemma claim_ok_groups full gs gs' rid rq out :
  shape_ok out = true -> fold_right N.add 0 (map held_ix out) = req_amount rq full -> take_all gs out = Some gs' ->
  claim_ok (PGroups full gs) (PGroups full gs') rid rq (mkRalloc rid (req_amount rq full) out) = true.
Proof.
  intros S1 S2 S3. unfold claim_ok, ra_total. cbn [ra_res ra_amount ra_indices pool_full_size pool_groups].
  rewrite !N.eqb_refl, S1, S2, N.eqb_refl, S3. simpl. apply groups_eqb_refl.
Qed.

Theorem claim_complete_scatter full gs rid a wit p' ra :
  gs_wf gs -> pool_claim (PGroups full gs) rid (Req Scatter a) wit = Ok (p', ra) ->
  claim_ok (PGroups full gs) p' rid (Req Scatter a) ra = true.
Proof.
  intros Hwf Hc. unfold pool_claim in Hc.
  destruct (claim_scatter_from_groups a gs None wit) as [[gs' out]| |] eqn:E; cbn [bind] in Hc; try discriminate.
  inversion Hc; subst. destruct (claim_scatter_complete _ _ _ _ _ _ Hwf E) as (S1 & S2 & S3).
  apply (claim_ok_groups full gs gs' rid (Req Scatter a)); auto.
Qed.

(** a fractional AllocationIndex that is served from a partly used index in the current state *)
Definition entry_based (gs : list group) (F : aidx) : Prop :=
  ai_frac F <> 0 /\ exists g f, get_at gs (ai_group F) = Ok g /\ fget (g_fr g) (ai_index F) = Some f /\ ai_frac F <= f.

Lemma take1_entry g F f : ai_frac F <> 0 -> fget (g_fr g) (ai_index F) = Some f -> ai_frac F <= f ->
  take1 g F = Some (mkGroup (g_idx g) (fset (g_fr g) (ai_index F) (f - ai_frac F))).
Proof.
  intros Hz Hf Hle. unfold take1. destruct (N.eqb_spec (ai_frac F) 0); [congruence|]. rewrite Hf.
  destruct (N.leb_spec (ai_frac F) f); [auto|lia].
Qed.

Lemma take_whole_keeps_entry gs x gs1 F : whole x -> take_all gs [x] = Some gs1 -> entry_based gs F -> entry_based gs1 F.
Proof.
  intros Hx Ht (Hz & g & f & Hg & Hf & Hle). split; auto. simpl in Ht.
  destruct (get_at gs (ai_group x)) as [gx| |] eqn:Hgx; try discriminate.
  rewrite take1_whole in Ht by auto. destruct (memN (ai_index x) (g_idx gx)); try discriminate. inversion Ht; subst.
  destruct (N.eq_dec (ai_group x) (ai_group F)) as [E|E].
  - rewrite E in *. rewrite Hg in Hgx. inversion Hgx; subst gx.
    eexists _, f. split; [eapply get_at_set_at_same'; eauto|]. simpl. auto.
  - exists g, f. rewrite get_at_set_at_other by auto. auto.
Qed.

Lemma take_swap_entry gs F x : entry_based gs F -> whole x -> take_all gs [F; x] = take_all gs [x; F].
Proof.
  intros (Hz & g & f & Hg & Hf & Hle) Hx.
  destruct (N.eq_dec (ai_group F) (ai_group x)) as [Eg|Eg].
  - rewrite (take_two_same gs F x Eg), (take_two_same gs x F (eq_sym Eg)). rewrite <- Eg, Hg.
    rewrite (take1_entry g F f) by auto. unfold obind. rewrite !take1_whole by auto. simpl.
    destruct (memN (ai_index x) (g_idx g)); auto.
    rewrite (take1_entry _ F f) by auto. simpl. auto.
  - simpl. rewrite Hg. rewrite (take1_entry g F f) by auto.
    rewrite get_at_set_at_other by auto.
    destruct (get_at gs (ai_group x)) as [gx| |] eqn:Hgx; auto.
    destruct (take1 gx x) as [gx'|]; auto.
    rewrite get_at_set_at_other by auto. rewrite Hg. rewrite (take1_entry g F f) by auto.
    rewrite set_at_comm by auto. auto.
Qed.

Lemma take_entry_past_wholes W : forall gs F, Forall whole W -> entry_based gs F ->
  take_all gs ([F] ++ W) = take_all gs (W ++ [F]).
Proof.
  induction W as [|x W IH]; intros gs F Hw He; auto.
  inversion Hw as [|? ? Hx Hw']; subst.
  change ([F] ++ x :: W) with ([F; x] ++ W). rewrite take_all_app, take_swap_entry by auto.
  change ((x :: W) ++ [F]) with ([x] ++ (W ++ [F])). rewrite (take_all_app gs [x]).
  change [x; F] with ([x] ++ [F]). rewrite (take_all_app gs [x] [F]).
  destruct (take_all gs [x]) as [gs1|] eqn:E1; auto.
  rewrite <- (IH gs1 F Hw') by (eapply take_whole_keeps_entry; eauto).
  rewrite take_all_app. auto.
Qed.

Lemma swap_to_last_spec {A} (a : list A) x b :
  swap_to_last (a ++ x :: b) (length a) = a ++ match rev b with [] => [x] | y :: r => y :: rev r ++ [x] end.
Proof. induction a as [|z a IH]; simpl; auto. rewrite IH. auto. Qed.

Lemma swapped_perm {A} (b : list A) : Permutation (match rev b with [] => [] | y :: r => y :: rev r end) b.
Proof.
  destruct (rev b) as [|y r] eqn:E.
  - assert (b = []) by (destruct b; auto; simpl in E; destruct (rev b); discriminate). subst; auto.
  - assert (Hb : b = rev r ++ [y]) by (rewrite <- (rev_involutive b), E; reflexivity). rewrite Hb.
    apply Permutation_cons_append.
Qed.

Lemma try_take_fraction_spec gs gi g fr wit out g' out' took :
  get_at gs gi = Ok g -> try_take_fraction g fr gi wit out = Ok (g', out', took) ->
  (took = false /\ g' = g /\ out' = out)
  \/ (took = true /\ fr <> 0 /\ exists F, out' = out ++ [F] /\ ai_frac F = fr /\ ai_group F = gi
      /\ entry_based gs F /\ take_all gs [F] = Some (set_at gs gi g')).
Proof.
  intros Hg Ht. unfold try_take_fraction in Ht.
  destruct (N.eqb_spec fr 0) as [Hz|Hz]; [inversion Ht; subst; auto|].
  destruct (best_fraction_match (g_fr g) fr wit) as [[[i f]|]| |] eqn:Eb; simpl in Ht; try discriminate.
  - inversion Ht; subst. apply bfm_some in Eb. destruct Eb as [Ei Hle]. right. repeat split; auto.
    exists (mkAidx i gi fr). repeat split; auto.
    + exists g, f. auto.
    + simpl. rewrite Hg. rewrite (take1_entry g (mkAidx i gi fr) f) by auto. auto.
  - inversion Ht; subst. auto.
Qed.

Definition segA (fidx fidx' : option nat) (seg : list aidx) : Prop :=
  fidx' = fidx /\ exists ws fs, seg = ws ++ fs /\ Forall whole ws
                 /\ (fs = [] \/ exists F, fs = [F] /\ ai_frac F <> 0 /\ ai_frac F < FPU).
Definition segB (gs : list group) (out : list aidx) (fidx' : option nat) (seg : list aidx) : Prop :=
  exists W1 F W2 gsA, seg = W1 ++ [F] ++ W2 /\ Forall whole W1 /\ Forall whole W2 /\ ai_frac F < FPU
    /\ fidx' = Some (length out + length W1)%nat /\ take_all gs W1 = Some gsA /\ entry_based gsA F.

Lemma whole_sum_mult ws : Forall whole ws -> sumN (map held_ix ws) = len ws * FPU.
Proof. apply sum_whole. Qed.

Lemma seg_no_fraction gs out fidx fidx' seg k :
  sumN (map held_ix seg) = k * FPU -> segA fidx fidx' seg \/ segB gs out fidx' seg ->
  fidx' = fidx /\ Forall whole seg.
Proof.
  intros Hs [(E & ws & fs & -> & Hw & Hf)|(W1 & F & W2 & gsA & -> & Hw1 & Hw2 & HF & _ & _ & (Hz & _))].
  - split; auto. destruct Hf as [->|(F & -> & Hz & Hl)]; [rewrite app_nil_r; auto|]. exfalso.
    rewrite map_app, sumN_app, (sum_whole _ Hw) in Hs. cbn [map] in Hs. rewrite sumN_cons, sumN_nil in Hs.
    unfold held_ix in Hs. destruct (N.eqb_spec (ai_frac F) 0); [congruence|].
    unfold FPU, FRACTIONS_PER_UNIT in *. nia.
  - exfalso. rewrite !map_app, !sumN_app, (sum_whole _ Hw1), (sum_whole _ Hw2) in Hs. cbn [map] in Hs. rewrite sumN_cons, sumN_nil in Hs.
    unfold held_ix in Hs. destruct (N.eqb_spec (ai_frac F) 0); [congruence|].
    unfold FPU, FRACTIONS_PER_UNIT in *. nia.
Qed.

Lemma compact_loop_unfold fuel gs amounts sel remaining wit out fraction_idx :
  compact_loop (S fuel) gs amounts sel remaining wit out fraction_idx =
      match find_min_fit amounts 0 remaining sel with
      | Some (gi, _) =>
          let '(units, fr) := split remaining in
          do g <- get_at gs gi;
          do r <- take_indices (g_idx g) gi units out;
          let '(st, out1) := r in
          do r2 <- take_fraction_index_or_split (mkGroup st (g_fr g)) fr gi wit out1;
          let '(g2, out2) := r2 in
          Ok (set_at gs gi g2, out2, fraction_idx)
      | None =>
          match find_max amounts 0 sel with
          | None => Panic SITE_MAXBY_UNWRAP
          | Some (gi, _) =>
              let amounts' := set_at amounts gi 0 in
              let '(units, fr) := split remaining in
              do g <- get_at gs gi;
              let size := len (g_idx g) in
              if units <? size then Panic SITE_UNDERFLOW
              else
                let units' := units - size in
                do r <- take_indices (g_idx g) gi size out;
                let '(st, out1) := r in
                do r2 <- try_take_fraction (mkGroup st (g_fr g)) fr gi wit out1;
                let '(g2, out2, took) := r2 in
                let fraction_idx' := if took then Some (length out2 - 1)%nat else fraction_idx in
                let fr' := if took then 0 else fr in
                compact_loop fuel (set_at gs gi g2) amounts' sel (mk_amount units' fr') wit out2 fraction_idx'
          end
      end.
Proof. reflexivity. Qed.

Lemma compact_loop_spec fuel : forall gs amounts sel remaining wit out fidx gs' out' fidx',
  gs_wf gs -> compact_loop fuel gs amounts sel remaining wit out fidx = Ok (gs', out', fidx') ->
  exists seg, out' = out ++ seg /\ take_all gs seg = Some gs' /\ sumN (map held_ix seg) = remaining
              /\ (segA fidx fidx' seg \/ segB gs out fidx' seg).
Proof.
  induction fuel as [|fuel IH]; intros gs amounts sel remaining wit out fidx gs' out' fidx' Hwf Hl; [discriminate|].
  rewrite compact_loop_unfold in Hl.
  destruct (split_recompose remaining) as [Hrec Hfr].
  destruct (find_min_fit amounts 0 remaining sel) as [[gi a]|].
  - (* a group that holds the rest *)
    destruct (split remaining) as [units fr] eqn:Es. simpl in Hrec, Hfr.
    destruct (get_at gs gi) as [g| |] eqn:Eg; cbn [bind] in Hl; try discriminate.
    destruct (take_indices (g_idx g) gi units out) as [[st out1]| |] eqn:Et; cbn [bind] in Hl; try discriminate.
    destruct (take_fraction_index_or_split (mkGroup st (g_fr g)) fr gi wit out1) as [[g2 out2]| |] eqn:Ef; cbn [bind] in Hl; try discriminate.
    inversion Hl; subst gs' out' fidx'. clear Hl.
    destruct (take_indices_spec gs gi g units out st out1 Eg Et) as (ws & E1 & Hw & Hlen & Hg0 & Hta). subst out1.
    set (gs1 := set_at gs gi (mkGroup st (g_fr g))) in *.
    assert (Hwf1 : gs_wf gs1) by (eapply take_all_wf; eauto).
    assert (Hg1 : get_at gs1 gi = Ok (mkGroup st (g_fr g))) by (eapply get_at_set_at_same'; eauto).
    assert (Hgw1 : gwf (mkGroup st (g_fr g))) by (apply get_at_ok in Hg1; destruct Hg1; eapply Forall_nth; eauto).
    destruct (take_fraction_spec gs1 gi _ fr wit (out ++ ws) g2 out2 Hg1 Hgw1 Hfr Ef) as [(Hz & -> & ->)|(Hz & F & -> & HF & HgF & HtF)].
    + exists ws. split; auto. split; [unfold gs1 in *; auto|]. split; [rewrite (sum_whole _ Hw); lia|].
      left. split; auto. exists ws, []. rewrite app_nil_r. auto.
    + exists (ws ++ [F]). split; [rewrite app_assoc; auto|]. split.
      * rewrite take_all_app, Hta, HtF. unfold gs1. rewrite set_at_set_at. auto.
      * split.
        -- rewrite map_app, sumN_app, (sum_whole _ Hw). cbn [map]. rewrite sumN_cons, sumN_nil. unfold held_ix.
           destruct (N.eqb_spec (ai_frac F) 0); [congruence|lia].
        -- left. split; auto. exists ws, [F]. repeat split; auto. right. exists F. repeat split; auto; lia.
  - (* take the biggest group entirely *)
    destruct (find_max amounts 0 sel) as [[gi a]|]; [|discriminate].
    destruct (split remaining) as [units fr] eqn:Es. simpl in Hrec, Hfr.
    destruct (get_at gs gi) as [g| |] eqn:Eg; cbn [bind] in Hl; try discriminate.
    destruct (N.ltb_spec units (len (g_idx g))) as [|Hge]; [discriminate|].
    destruct (take_indices (g_idx g) gi (len (g_idx g)) out) as [[st out1]| |] eqn:Et; cbn [bind] in Hl; try discriminate.
    destruct (try_take_fraction (mkGroup st (g_fr g)) fr gi wit out1) as [[[g2 out2] took]| |] eqn:Ef; cbn [bind] in Hl; try discriminate.
    destruct (take_indices_spec gs gi g _ out st out1 Eg Et) as (ws & E1 & Hw & Hlen & Hg0 & Hta). subst out1.
    set (gs1 := set_at gs gi (mkGroup st (g_fr g))) in *.
    assert (Hwf1 : gs_wf gs1) by (eapply take_all_wf; eauto).
    assert (Hg1 : get_at gs1 gi = Ok (mkGroup st (g_fr g))) by (eapply get_at_set_at_same'; eauto).
    destruct (try_take_fraction_spec gs1 gi _ fr wit (out ++ ws) g2 out2 took Hg1 Ef) as [(-> & -> & ->)|(-> & Hz & F & -> & HF & HgF & HeF & HtF)].
    + assert (Hgs : set_at gs gi (mkGroup st (g_fr g)) = gs1) by reflexivity. rewrite Hgs in Hl.
      destruct (IH _ _ _ _ _ _ _ _ _ _ Hwf1 Hl) as (seg & E & Hts & Hsum & Hcase).
      exists (ws ++ seg). split; [rewrite E, app_assoc; auto|]. split; [rewrite take_all_app, Hta; auto|].
      split; [rewrite map_app, sumN_app, (sum_whole _ Hw), Hsum; unfold mk_amount; unfold FPU, FRACTIONS_PER_UNIT in *; lia|].
      destruct Hcase as [(Ei & ws' & fs' & -> & Hw' & Hf')|(W1 & F & W2 & gsA & -> & Hw1 & Hw2 & HF & Ei & HtA & HeA)].
      * left. split; auto. exists (ws ++ ws'), fs'. rewrite app_assoc. repeat split; auto. apply Forall_app; auto.
      * right. exists (ws ++ W1), F, W2, gsA. rewrite app_assoc.
        split; [auto|]. split; [apply Forall_app; auto|]. split; [auto|]. split; [auto|].
        split; [rewrite Ei, !app_length; f_equal; lia|]. split; [rewrite take_all_app, Hta; auto|auto].
    + assert (Hgs : set_at gs gi g2 = set_at gs1 gi g2) by (unfold gs1; rewrite set_at_set_at; auto). rewrite Hgs in Hl.
      assert (Hwf2 : gs_wf (set_at gs1 gi g2)) by (eapply take_all_wf; [|exact HtF]; auto).
      destruct (IH _ _ _ _ _ _ _ _ _ _ Hwf2 Hl) as (seg & E & Hts & Hsum & Hcase).
      assert (Hk : sumN (map held_ix seg) = (units - len (g_idx g)) * FPU) by (rewrite Hsum; unfold mk_amount; unfold FPU, FRACTIONS_PER_UNIT in *; lia).
      destruct (seg_no_fraction _ _ _ _ _ _ Hk Hcase) as [Ei Hwseg].
      exists (ws ++ [F] ++ seg). split; [rewrite E; rewrite <- !app_assoc; auto|].
      split; [rewrite take_all_app, Hta; change ([F] ++ seg) with ([F] ++ seg); rewrite (take_all_app gs1 [F]), HtF; auto|].
      split.
      * rewrite !map_app, !sumN_app, (sum_whole _ Hw), Hk. cbn [map]. rewrite sumN_cons, sumN_nil. unfold held_ix.
        destruct (N.eqb_spec (ai_frac F) 0); [congruence|]. unfold FPU, FRACTIONS_PER_UNIT in *; lia.
      * right. exists ws, F, seg, gs1.
        split; [auto|]. split; [auto|]. split; [auto|]. split; [lia|].
        split; [rewrite Ei; f_equal; rewrite !app_length; simpl; lia|]. split; auto.
Qed.

Lemma claim_compact_complete gs sel a wit gs' out :
  gs_wf gs -> claim_compact_from_groups a gs sel wit = Ok (gs', out) ->
  shape_ok out = true /\ fold_right N.add 0 (map held_ix out) = a /\ take_all gs out = Some gs'.
Proof.
  intros Hwf Hc. unfold claim_compact_from_groups in Hc.
  destruct (compact_loop (length gs + 2) gs (map group_amount gs) sel a wit [] None) as [[[gs1 raw] fidx]| |] eqn:El; cbn [bind] in Hc; try discriminate.
  inversion Hc; subst gs1 out. clear Hc.
  destruct (compact_loop_spec _ _ _ _ _ _ _ _ _ _ _ Hwf El) as (seg & E & Hts & Hsum & Hcase).
  simpl in E. subst raw. rewrite ra_total_sum.
  destruct Hcase as [(Ei & ws & fs & -> & Hw & Hf)|(W1 & F & W2 & gsA & -> & Hw1 & Hw2 & HF & Ei & HtA & HeA)].
  - subst fidx. split; [apply shape_ok_app; auto; destruct Hf as [->|(F & -> & Hz & Hl)]; auto; right; exists F; auto|]. auto.
  - subst fidx. cbn [length Nat.add]. change (W1 ++ [F] ++ W2) with (W1 ++ F :: W2). rewrite swap_to_last_spec.
    set (W2' := match rev W2 with [] => [] | y :: r => y :: rev r end).
    assert (Hfin : W1 ++ match rev W2 with [] => [F] | y :: r => y :: rev r ++ [F] end = (W1 ++ W2') ++ [F]).
    { unfold W2'. destruct (rev W2); rewrite <- ?app_assoc; simpl; auto. }
    rewrite Hfin.
    assert (Hp2 : Permutation W2' W2) by apply swapped_perm.
    assert (Hw2' : Forall whole W2') by (eapply Permutation_Forall; [apply Permutation_sym; eauto|auto]).
    assert (Hww : Forall whole (W1 ++ W2')) by (apply Forall_app; auto).
    destruct HeA as [Hz HeA'].
    split; [apply shape_ok_app; auto; right; exists F; auto|]. split.
    + rewrite <- Hsum. apply sumN_map_perm.
      change (W1 ++ F :: W2) with (W1 ++ [F] ++ W2).
      rewrite <- app_assoc. apply Permutation_app_head. eapply perm_trans; [apply Permutation_app_comm|].
      simpl. apply perm_skip. auto.
    + change (W1 ++ F :: W2) with (W1 ++ ([F] ++ W2)) in Hts. rewrite take_all_app, HtA in Hts.
      rewrite (take_entry_past_wholes W2 gsA F Hw2 (conj Hz HeA')) in Hts.
      rewrite <- app_assoc. rewrite take_all_app, HtA. rewrite take_all_app in *.
      rewrite (take_all_perm_whole _ _ Hp2 Hw2'). auto.
Qed.

Theorem claim_complete_coupled p rid rq mask wit p' ra :
  gs_wf (pool_groups p) -> claim_with_group_mask p rid rq mask wit = Ok (p', ra) -> claim_ok p p' rid rq ra = true.
Proof.
  intros Hwf Hc. destruct (claim_with_group_mask_inv _ _ _ _ _ _ _ Hc) as (full & gs & pol & a & gs' & out & -> & -> & -> & -> & Hl).
  assert (S : shape_ok out = true /\ fold_right N.add 0 (map held_ix out) = a /\ take_all gs out = Some gs')
    by (destruct pol; cbv iota in Hl; try contradiction;
        first [eapply claim_scatter_complete; eassumption | eapply claim_compact_complete; eassumption]).
  destruct S as (S1 & S2 & S3). apply (claim_ok_groups full gs gs' rid (Req pol a)); auto.
Qed.

Definition not_all_on_groups (p : pool) (rq : areq) : Prop :=
  match p, rq with PGroups _ _, ReqAll => False | _, _ => True end.

Theorem gate_transparent_direct {A} p rid rq wit (k : pool -> ralloc -> res A) :
  gs_wf (pool_groups p) -> not_all_on_groups p rq ->
  checked (pool_claim p rid rq wit) p rid rq k = (do x <- pool_claim p rid rq wit; k (fst x) (snd x)).
Proof.
  intros Hwf Hna. unfold checked.
  destruct (pool_claim p rid rq wit) as [[p' ra]| |] eqn:E; cbn [bind fst snd]; auto.
  assert (Hok : claim_ok p p' rid rq ra = true).
  { destruct p as [|full g|full gs|full free].
    - discriminate E.
    - apply (claim_complete_indices full g rid rq wit); auto. inversion Hwf; auto.
    - destruct rq as [[] a|]; try discriminate E; try contradiction.
      apply (claim_complete_scatter full gs rid a wit); auto.
    - apply (claim_complete_sum full free rid rq wit); auto. }
  rewrite Hok. auto.
Qed.

Theorem gate_transparent_coupled {A} p rid rq mask wit (k : pool -> ralloc -> res A) :
  gs_wf (pool_groups p) ->
  checked (claim_with_group_mask p rid rq mask wit) p rid rq k = (do x <- claim_with_group_mask p rid rq mask wit; k (fst x) (snd x)).
Proof.
  intros Hwf. unfold checked.
  destruct (claim_with_group_mask p rid rq mask wit) as [[p' ra]| |] eqn:E; cbn [bind fst snd]; auto.
  assert (Hok : claim_ok p p' rid rq ra = true) by (eapply claim_complete_coupled; eauto).
  rewrite Hok. auto.
Qed.
