(** C16 - claim follows policy, for whole grants: every resource allocation of every grant of
    ResourceAllocator::try_allocate satisfies the four shape monitors (scatter-shape, compact-shape, tight-shape,
    min-fraction) relative to the pools BEFORE the grant and to the entry of the request it serves. *)
From Coq Require Import Permutation.
From HQ Require Import Base.Prelude Gen.Consts Alloc.Model Alloc.Spec Alloc.Lemmas Alloc.Group Alloc.Pool Alloc.Inv Alloc.Claims Alloc.Theorems Alloc.Mirror Alloc.MirrorSystem Alloc.CompleteTight Alloc.Examples
  Alloc.PolicyBase Alloc.PolicyFrac Alloc.PolicyScatter Alloc.PolicyTight.
Require Import ZifyBool.
Open Scope N_scope.

(** the four monitors of ocaml/alloc/driver.ml, for one (entry, resource allocation) pair *)
Definition policy_ok (before : list pool) (e : entry) (ra : ralloc) : bool :=
  scatter_ok before e ra && compact_even_ok before e ra && tight_ok before e ra && min_fraction_ok before e ra.

(** a non-coupled entry (ResourcePool::claim_resources) *)
Theorem policy_direct before e wit p p' ra :
  get_at before (e_res e) = Ok p ->
  is_groups p && is_relevant_for_coupling (e_req e) = false ->
  pool_claim p (e_res e) (e_req e) wit = Ok (p', ra) ->
  policy_ok before e ra = true.
Proof.
  intros Hg Hnc Hc. apply get_at_nth in Hg.
  assert (Hmf : min_fraction_ok before e ra = true) by (eapply C16_min_fraction_direct; eauto).
  unfold policy_ok. rewrite Hmf, andb_true_r.
  destruct p as [|full g|full gs|full free].
  - discriminate Hc.
  - unfold scatter_ok, compact_even_ok, tight_ok. rewrite Hg. destruct (e_req e) as [[] a|]; reflexivity.
  - destruct (e_req e) as [[] a|] eqn:He; try discriminate Hnc.
    + assert (Hs : scatter_ok before e ra = true).
      { eapply (C16_scatter_shape before e a wit full gs p' ra); eauto. rewrite He. exact Hc. }
      rewrite Hs. unfold compact_even_ok, tight_ok. rewrite He, ?Hg. reflexivity.
    + unfold scatter_ok, compact_even_ok, tight_ok. rewrite He, ?Hg. reflexivity.
  - unfold scatter_ok, compact_even_ok, tight_ok. rewrite Hg. destruct (e_req e) as [[] a|]; reflexivity.
Qed.

(** a coupled entry (ResourcePool::claim_resources_with_group_mask) with a duplicate-free group selection *)
Theorem policy_coupled before e mask wit p p' ra :
  get_at before (e_res e) = Ok p -> NoDup mask ->
  claim_with_group_mask p (e_res e) (e_req e) mask wit = Ok (p', ra) ->
  policy_ok before e ra = true.
Proof.
  intros Hg Hnd Hc. apply get_at_nth in Hg.
  assert (Hmf : min_fraction_ok before e ra = true) by (eapply C16_min_fraction_coupled; eauto).
  unfold policy_ok. rewrite Hmf, andb_true_r.
  destruct p as [|full g|full gs|full free]; try discriminate Hc.
  destruct (e_req e) as [[] a|] eqn:He; try discriminate Hc.
  - assert (Hs : compact_even_ok before e ra = true).
    { eapply (C16_compact_shape before e a mask wit full gs p' ra); eauto. rewrite He. exact Hc. }
    rewrite Hs. unfold scatter_ok, tight_ok. rewrite He, ?Hg. reflexivity.
  - assert (Hs : tight_ok before e ra = true).
    { eapply (C16_tight_shape before e a mask wit full gs p' ra); eauto. rewrite He. exact Hc. }
    rewrite Hs. unfold scatter_ok, compact_even_ok. rewrite He, ?Hg. reflexivity.
  - assert (Hs : compact_even_ok before e ra = true).
    { eapply (C16_compact_shape before e a mask wit full gs p' ra); eauto. rewrite He. exact Hc. }
    rewrite Hs. unfold scatter_ok, tight_ok. rewrite He, ?Hg. reflexivity.
  - assert (Hs : tight_ok before e ra = true).
    { eapply (C16_tight_shape before e a mask wit full gs p' ra); eauto. rewrite He. exact Hc. }
    rewrite Hs. unfold scatter_ok, compact_even_ok. rewrite He, ?Hg. reflexivity.
Qed.


Definition served (before : list pool) (rq0 : request) (ra : ralloc) : Prop :=
  exists e, In e rq0 /\ e_res e = ra_res ra /\ policy_ok before e ra = true.

Lemma masks_feasible_nodup rows : forall masks, masks_feasible rows masks = true -> Forall (@NoDup N) masks.
Proof.
  induction rows as [|[[per u] f] rows IH]; intros [|m masks] H; cbn [masks_feasible] in H; try discriminate; [constructor|].
  apply andb_true_iff in H. destruct H as [H H3]. apply andb_true_iff in H. destruct H as [H1 _].
  constructor; auto. eapply increasing_nodup; eauto.
Qed.

Lemma group_solver_nodup free entries ws tie ans masks o :
  group_solver free entries ws tie ans = Ok (Some (masks, o)) -> Forall (@NoDup N) masks.
Proof.
  intros H. destruct (group_solver_some _ _ _ _ _ _ _ H) as (_ & _ & rows & _ & Hf). eapply masks_feasible_nodup; eauto.
Qed.

Theorem claim_resources_policy a rq w pools' al :
  NoDup (map e_res rq) ->
  claim_resources a rq w = Ok (pools', al) ->
  Forall (served (a_pools a) rq) al.
Proof.
  intros Hnd Hc. destruct (claim_resources_each _ _ _ _ _ Hnd Hc) as (ms & Hsol & Hall).
  eapply Forall_impl; [|exact Hall]. intros ra (e & He & Hres & p & p' & Hg & Hok & Hcl).
  exists e. split; auto. split; auto. destruct Hcl as [[Hnc Hpc]|(m & Hin & Hcm)].
  - eapply policy_direct; eauto.
  - eapply (policy_coupled _ e m); eauto.
    destruct Hsol as [[_ ->]|[o Hs]]; [destruct (coupled_entries _ _); destruct Hin|].
    apply in_combine_r in Hin. eapply Forall_forall; [eapply group_solver_nodup; eauto|exact Hin].
Qed.

(** C16 "claim follows policy", full statement at the level of the allocator: for EVERY allocator state, EVERY
    request with pairwise distinct resource ids (ResourceRequest::validate) and EVERY accepted witness, each
    resource allocation of a grant of try_allocate serves an entry of the request and satisfies, relative to the
    pools before the grant, all four shape monitors:
    - scatter touches min(units, number of non-empty groups) groups,
    - compact / compact! spread the whole indices evenly over the groups used (two groups differ by more than
      one index only if the smaller one was drained),
    - tight / tight! drain all but at most one of the groups used,
    - the fractional remainder comes from the partly used index of its group with the least fitting free
      fraction, a whole index being split only if no partly used index fits. *)
Theorem C16_claim_follows_policy : forall s rq w s' al,
  NoDup (map e_res rq) ->
  step s (OAlloc rq w) = Ok (s', OutGrant al) ->
  Forall (fun ra => exists e, In e rq /\ e_res e = ra_res ra
                              /\ scatter_ok (a_pools (s_alloc s)) e ra = true
                              /\ compact_even_ok (a_pools (s_alloc s)) e ra = true
                              /\ tight_ok (a_pools (s_alloc s)) e ra = true
                              /\ min_fraction_ok (a_pools (s_alloc s)) e ra = true) al.
Proof.
  intros s rq w s' al Hnd Hs. destruct (step_grant_inv _ _ _ _ _ Hs) as (yard & pools & free' & _ & Ec & _).
  apply claim_resources_policy in Ec; auto. cbn [a_pools] in Ec.
  eapply Forall_impl; [|exact Ec]. intros ra (e & He & Hres & Hp).
  unfold policy_ok in Hp. rewrite !andb_true_iff in Hp. destruct Hp as [[[A B] C] D].
  exists e. repeat split; auto.
Qed.

(** in particular in every reachable state of the worker-side system *)
Corollary C16_claim_follows_policy_reachable : forall d s0 ops s rq w s' al,
  init d = Ok s0 -> Forall valid_op ops -> run s0 ops = Ok s -> NoDup (map e_res rq) ->
  step s (OAlloc rq w) = Ok (s', OutGrant al) ->
  Forall (fun ra => exists e, In e rq /\ e_res e = ra_res ra /\ policy_ok (a_pools (s_alloc s)) e ra = true) al.
Proof.
  intros d s0 ops s rq w s' al _ _ _ Hnd Hs.
  eapply Forall_impl; [|eapply C16_claim_follows_policy; eauto].
  intros ra (e & He & Hres & A & B & C & D). exists e. unfold policy_ok. rewrite A, B, C, D. auto.
Qed.

(** non-vacuity: the run of Alloc.Examples (compact + sum, scatter, tight on two groups of two cpus): the third
    grant is made in a reachable state with live allocations *)
Example claim_follows_policy_example :
  exists s0 s s' al,
    init ex_desc = Ok s0 /\ run s0 (firstn 2 ex_ops) = Ok s
    /\ step s (OAlloc [mkEntry 0 (Req Tight 5000)] (mkWitness (Some [[0]]) None None [(0, 0)])) = Ok (s', OutGrant al)
    /\ al = [mkRalloc 0 5000 [mkAidx 0 0 5000]]
    /\ forallb (fun ra => policy_ok (a_pools (s_alloc s)) (mkEntry 0 (Req Tight 5000)) ra) al = true.
Proof.
  eexists. eexists. eexists. eexists.
  split; [vm_compute; reflexivity|]. split; [vm_compute; reflexivity|]. split; [vm_compute; reflexivity|].
  split; vm_compute; reflexivity.
Qed.

Print Assumptions C16_claim_follows_policy.
Print Assumptions C16_claim_follows_policy_reachable.
