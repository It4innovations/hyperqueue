(** C16 - the loop of ResourcePool::claim_compact_from_groups (policies tight / tight! over the groups selected
    by the solver): every group the claim uses is drained of its whole free indices, except the last one
    (the smallest group that can hold the rest). *)
From Coq Require Import Permutation.
From HQ Require Import Base.Prelude Gen.Consts Alloc.Model Alloc.Spec Alloc.Lemmas Alloc.Group Alloc.Pool Alloc.Inv Alloc.Theorems Alloc.Mirror Alloc.MirrorSystem Alloc.CompleteTight Alloc.PolicyBase Alloc.PolicyFrac.
Require Import ZifyBool.
Open Scope N_scope.

Definition in_group (gi : N) (ix : aidx) : Prop := ai_group ix = gi.

Lemma wc_group_other nw gi g : Forall (in_group gi) nw -> g <> gi -> wc nw g = 0.
Proof.
  induction 1 as [|ix nw Hix Hnw IH]; intros Hne; [apply wc_nil|].
  rewrite wc_cons, IH by auto. unfold in_group in Hix. destruct (N.eqb_spec (ai_group ix) g); [congruence|]. reflexivity.
Qed.

Lemma block_in_group gi (l : list N) : Forall (in_group gi) (map (fun i => mkAidx i gi 0) l).
Proof. apply Forall_forall. intros x Hx. apply in_map_iff in Hx. destruct Hx as [i [<- _]]. reflexivity. Qed.

(** what the loop has taken so far: every group it touched is drained *)
Definition DrainedInv (L : N -> N) (n : nat) (gs : list group) (out : list aidx) : Prop :=
  length gs = n
  /\ (forall g, wc out g + lenidx gs g = L g)
  /\ (forall ix, In ix out -> lenidx gs (ai_group ix) = 0)
  /\ Forall (fun ix => ai_group ix < N.of_nat n) out.

Lemma compact_loop_tight L n fuel : forall gs amounts sel remaining wit out fidx gs' out' fidx',
  DrainedInv L n gs out ->
  compact_loop fuel gs amounts sel remaining wit out fidx = Ok (gs', out', fidx') ->
  exists gstar,
    (forall ix, In ix out' -> ai_group ix <> gstar -> wc out' (ai_group ix) = L (ai_group ix))
    /\ Forall (fun ix => ai_group ix < N.of_nat n) out'.
Proof.
  induction fuel as [|fuel IH]; intros gs amounts sel remaining wit out fidx gs' out' fidx' (Hn & Hcons & Hdr & Hrg) Hl; [discriminate|].
  rewrite compact_loop_unfold in Hl.
  destruct (find_min_fit amounts 0 remaining sel) as [[gi a]|].
  - (* the last group: the smallest one that holds the rest *)
    destruct (split remaining) as [units fr] eqn:Es.
    destruct (get_at gs gi) as [g| |] eqn:Eg; cbn [bind] in Hl; try discriminate.
    destruct (take_indices (g_idx g) gi units out) as [[st out1]| |] eqn:Et; cbn [bind] in Hl; try discriminate.
    destruct (take_fraction_index_or_split (mkGroup st (g_fr g)) fr gi wit out1) as [[g2 out2]| |] eqn:Ef; cbn [bind] in Hl; try discriminate.
    inversion Hl; subst gs' out' fidx'. clear Hl.
    apply take_indices_inv in Et. destruct Et as (Hle & -> & ->).
    assert (Hgi : gi < N.of_nat n) by (apply get_at_range in Eg; unfold len in Eg; lia).
    assert (Hnew : exists nw, out2 = out ++ nw /\ Forall (in_group gi) nw).
    { destruct (take_fraction_mf (mkGroup (skipn (nat_of units) (g_idx g)) (g_fr g)) (mkGroup (skipn (nat_of units) (g_idx g)) (g_fr g))
                  fr gi wit _ _ _ eq_refl (incl_refl _) Ef) as [(_ & -> & _)|(_ & F & -> & HgF & _)].
      - eexists. split; [reflexivity|]. apply block_in_group.
      - eexists. rewrite <- app_assoc. split; [reflexivity|]. apply Forall_app. split; [apply block_in_group|].
        constructor; [exact HgF|constructor]. }
    destruct Hnew as (nw & -> & Hnw).
    exists gi. split.
    + intros ix Hin Hne. apply in_app_or in Hin. destruct Hin as [Hin|Hin].
      * rewrite wc_app, (wc_group_other nw gi) by auto.
        pose proof (Hcons (ai_group ix)) as Hc. rewrite (Hdr _ Hin) in Hc. lia.
      * exfalso. rewrite Forall_forall in Hnw. apply Hne. apply Hnw. auto.
    + apply Forall_app. split; auto. eapply Forall_impl; [|exact Hnw]. intros ix Hx. unfold in_group in Hx. rewrite Hx. auto.
  - (* the biggest group is taken entirely *)
    destruct (find_max amounts 0 sel) as [[gi a]|]; [|discriminate].
    destruct (split remaining) as [units fr] eqn:Es.
    destruct (get_at gs gi) as [g| |] eqn:Eg; cbn [bind] in Hl; try discriminate.
    destruct (N.ltb_spec units (len (g_idx g))) as [|Hge]; [discriminate|].
    destruct (take_indices (g_idx g) gi (len (g_idx g)) out) as [[st out1]| |] eqn:Et; cbn [bind] in Hl; try discriminate.
    destruct (try_take_fraction (mkGroup st (g_fr g)) fr gi wit out1) as [[[g2 out2] took]| |] eqn:Ef; cbn [bind] in Hl; try discriminate.
    apply take_indices_inv in Et. destruct Et as (Hle & -> & ->).
    assert (Hgi : gi < N.of_nat n) by (apply get_at_range in Eg; unfold len in Eg; lia).
    pose proof (try_take_fraction_idx _ _ _ _ _ _ _ _ Ef) as Hidx. cbn [g_idx] in Hidx.
    assert (Hnew : exists nw, out2 = out ++ nw /\ Forall (in_group gi) nw /\ wc nw gi = len (g_idx g)).
    { destruct (try_take_fraction_mf (mkGroup (skipn (nat_of (len (g_idx g))) (g_idx g)) (g_fr g))
                  (mkGroup (skipn (nat_of (len (g_idx g))) (g_idx g)) (g_fr g)) fr gi wit _ _ _ _ eq_refl Ef)
        as [(_ & -> & _)|(_ & Hz & _ & F & -> & HgF & HfF & _)].
      - eexists. split; [reflexivity|]. split; [apply block_in_group|].
        rewrite wc_block, N.eqb_refl. apply len_firstn. lia.
      - eexists. rewrite <- app_assoc. split; [reflexivity|]. split.
        + apply Forall_app. split; [apply block_in_group|]. constructor; [exact HgF|constructor].
        + rewrite wc_app, wc_block, N.eqb_refl, wc_frac by congruence. rewrite len_firstn by lia. lia. }
    destruct Hnew as (nw & -> & Hnw & Hwc).
    assert (Hlen2 : lenidx (set_at gs gi g2) gi = 0).
    { rewrite (lenidx_set_at_same _ _ _ _ Eg), Hidx, len_skipn. lia. }
    eapply IH; [|exact Hl]. split; [|split; [|split]].
    + rewrite set_at_length. auto.
    + intros g'. destruct (N.eq_dec gi g') as [<-|Hne].
      * rewrite wc_app, Hwc, Hlen2. pose proof (Hcons gi) as Hc. rewrite (lenidx_get _ _ _ Eg) in Hc. lia.
      * rewrite wc_app, (wc_group_other nw gi) by auto. rewrite lenidx_set_at_other by auto. rewrite N.add_0_r. auto.
    + intros ix Hin. destruct (N.eq_dec gi (ai_group ix)) as [<-|Hne]; [auto|].
      rewrite lenidx_set_at_other by auto. apply in_app_or in Hin. destruct Hin as [Hin|Hin]; [auto|].
      exfalso. rewrite Forall_forall in Hnw. apply Hne. symmetry. apply Hnw. auto.
    + apply Forall_app. split; auto. eapply Forall_impl; [|exact Hnw]. intros ix Hx. unfold in_group in Hx. rewrite Hx. auto.
Qed.

Theorem tight_shape a gs sel wit gs' out :
  claim_compact_from_groups a gs sel wit = Ok (gs', out) ->
  exists gstar, forall g, In g (map ai_group out) -> g <> gstar ->
    exists gr, nth_error gs (nat_of g) = Some gr /\ wc out g = len (g_idx gr).
Proof.
  intros Hc. unfold claim_compact_from_groups in Hc.
  destruct (compact_loop (length gs + 2) gs (map group_amount gs) sel a wit [] None) as [[[gs1 raw] fidx]| |] eqn:El; cbn [bind] in Hc; try discriminate.
  inversion Hc; subst gs1 out. clear Hc.
  assert (Hinv : DrainedInv (lenidx gs) (length gs) gs []).
  { split; auto. split; [intros g; rewrite wc_nil; lia|]. split; [intros ix []|constructor]. }
  destruct (compact_loop_tight _ _ _ _ _ _ _ _ _ _ _ _ _ Hinv El) as (gstar & Hdr & Hrg).
  assert (Hp : Permutation (match fidx with Some k => swap_to_last raw k | None => raw end) raw)
    by (destruct fidx; [apply swap_to_last_perm | apply Permutation_refl]).
  exists gstar. intros g Hg Hne.
  apply in_map_iff in Hg. destruct Hg as (ix & <- & Hin).
  apply (Permutation_in _ Hp) in Hin.
  rewrite (wc_perm _ _ _ Hp), (Hdr _ Hin Hne), lenidx_nth.
  rewrite Forall_forall in Hrg. specialize (Hrg _ Hin). cbv beta in Hrg.
  destruct (nth_error gs (nat_of (ai_group ix))) as [gr|] eqn:En; [eauto|].
  exfalso. apply nth_error_None in En. unfold nat_of in En. lia.
Qed.

(** The monitor tight-shape as a theorem: for EVERY group pool, EVERY tight / tight! request and EVERY group
    selection, of the groups used by what ResourcePool::claim_resources_with_group_mask returns at most one is
    not drained of its whole free indices. *)
Theorem C16_tight_shape : forall before e a mask wit full gs p' ra,
  e_req e = Req Tight a \/ e_req e = Req ForceTight a ->
  nth_error before (nat_of (e_res e)) = Some (PGroups full gs) ->
  claim_with_group_mask (PGroups full gs) (e_res e) (e_req e) mask wit = Ok (p', ra) ->
  tight_ok before e ra = true.
Proof.
  intros before e a mask wit full gs p' ra He Hn Hc.
  assert (Hc' : exists gs' out, claim_compact_from_groups a gs (Some mask) wit = Ok (gs', out) /\ ra_indices ra = out).
  { destruct He as [He|He]; rewrite He in Hc; cbn [claim_with_group_mask] in Hc;
      destruct (claim_compact_from_groups a gs (Some mask) wit) as [[gs' out]| |]; cbn [bind] in Hc; try discriminate;
      inversion Hc; subst; eauto. }
  destruct Hc' as (gs' & out & E & Hout).
  destruct (tight_shape _ _ _ _ _ _ E) as (gstar & Hdr).
  assert (Hgoal : len (filter (fun g => match nth_error gs (nat_of g) with
                                        | Some gr => whole_count ra g <? len (g_idx gr)
                                        | None => true end) (dedup (map ai_group (ra_indices ra)))) <=? 1 = true).
  { apply N.leb_le. apply (filter_at_most_one _ _ gstar); [apply nodup_dedup|].
    intros g Hg Hf. rewrite in_dedup, Hout in Hg. rewrite whole_count_wc, Hout in Hf.
    destruct (N.eq_dec g gstar) as [|Hne]; auto. exfalso.
    destruct (Hdr g Hg Hne) as (gr & Hgr & Heq). rewrite Hgr, Heq, N.ltb_irrefl in Hf. discriminate. }
  unfold tight_ok. destruct He as [He|He]; rewrite He, Hn; exact Hgoal.
Qed.

(** non-vacuity: tight of 4.25 units over the groups [2 free; 3 free + partly used index 7 (0.6 free)]:
    the bigger group 1 is drained (3 indices + the fraction from index 7), the rest comes from group 0 *)
Example tight_shape_example :
  let gs := [mkGroup [1; 0] []; mkGroup [6; 5; 4] [(7, 6000)]] in
  let p := PGroups (mk_amount 6 0) gs in
  exists p' ra,
    claim_with_group_mask p 0 (Req Tight 42500) [0; 1] (Some 7) = Ok (p', ra)
    /\ whole_count ra 1 = 3 /\ whole_count ra 0 = 1
    /\ tight_ok [p] (mkEntry 0 (Req Tight 42500)) ra = true.
Proof. eexists _, _. split; [vm_compute; reflexivity|]. vm_compute. repeat split. Qed.

Print Assumptions C16_tight_shape.
