(** Basic lemmas: fraction maps, indexed access, sums, sorting. *)
From Coq Require Import Permutation.
From HQ Require Import Base.Prelude Gen.Consts Alloc.Model Alloc.Spec.
Require Import ZifyBool.
Open Scope N_scope.
Arguments N.add : simpl never.
Arguments N.sub : simpl never.
Arguments N.mul : simpl never.
Arguments N.div : simpl never.
Arguments N.modulo : simpl never.
Arguments N.eqb : simpl never.
Arguments N.ltb : simpl never.
Arguments N.leb : simpl never.
Arguments N.of_nat : simpl never.
Arguments N.to_nat : simpl never.

Lemma FPU_pos : 0 < FPU.
Proof. reflexivity. Qed.

Lemma split_mk units fr : fr < FPU -> split (units * FPU + fr) = (units, fr).
Proof.
  intros H. unfold split. pose proof FPU_pos. f_equal.
  - rewrite N.div_add_l by lia. rewrite N.div_small by lia. lia.
  - rewrite N.add_comm, N.mod_add by lia. apply N.mod_small; auto.
Qed.

Lemma split_recompose a : fst (split a) * FPU + snd (split a) = a /\ snd (split a) < FPU.
Proof.
  unfold split. cbn [fst snd]. split; [|apply N.mod_lt; discriminate].
  rewrite N.mul_comm. symmetry. apply N.div_mod'.
Qed.

Definition keys (m : fmap) : list N := map fst m.

Lemma fget_none_notin m i : fget m i = None <-> ~ In i (keys m).
Proof.
  induction m as [|[k v] m IH]; simpl; [tauto|].
  destruct (N.eqb_spec k i); subst.
  - split; [discriminate|]. intros H; exfalso; apply H; auto.
  - rewrite IH. split; intros H; [intros [H1|H1]; [congruence|auto] | intros H1; apply H; auto].
Qed.

Lemma fget_fset_same m i v : fget (fset m i v) i = Some v.
Proof.
  induction m as [|[k w] m IH]; simpl.
  - rewrite N.eqb_refl; auto.
  - destruct (N.eqb_spec k i); simpl.
    + subst. rewrite N.eqb_refl; auto.
    + destruct (N.eqb_spec k i); [congruence|auto].
Qed.

Lemma fget_fset_other m i j v : i <> j -> fget (fset m i v) j = fget m j.
Proof.
  intros Hij. induction m as [|[k w] m IH]; simpl.
  - destruct (N.eqb_spec i j); [congruence|auto].
  - destruct (N.eqb_spec k i); simpl.
    + subst. destruct (N.eqb_spec i j); [congruence|auto].
    + destruct (N.eqb_spec k j); auto.
Qed.

Lemma fget_fset m i j v : fget (fset m i v) j = if i =? j then Some v else fget m j.
Proof.
  destruct (N.eqb_spec i j); [subst; apply fget_fset_same | apply fget_fset_other; auto].
Qed.

Lemma keys_fset_in m i v j : In j (keys (fset m i v)) <-> j = i \/ In j (keys m).
Proof.
  induction m as [|[k w] m IH]; simpl.
  - split; [intros [H|[]]; auto | intros [H|[]]; auto].
  - destruct (N.eqb_spec k i); simpl.
    + subst. intuition congruence.
    + rewrite IH. intuition congruence.
Qed.

Lemma nodup_keys_fset m i v : NoDup (keys m) -> NoDup (keys (fset m i v)).
Proof.
  induction m as [|[k w] m IH]; simpl; intros H.
  - constructor; [intros []|constructor].
  - inversion H as [|? ? Hn Hd]; subst.
    destruct (N.eqb_spec k i); simpl.
    + subst. constructor; auto.
    + constructor; [|auto]. intros Hin. apply keys_fset_in in Hin. destruct Hin; [congruence|auto].
Qed.

Lemma fget_fremove_same m i : NoDup (keys m) -> fget (fremove m i) i = None.
Proof.
  induction m as [|[k w] m IH]; simpl; intros H; auto.
  inversion H as [|? ? Hn Hd]; subst.
  destruct (N.eqb_spec k i); simpl.
  - subst. apply fget_none_notin; auto.
  - destruct (N.eqb_spec k i); [congruence|auto].
Qed.

Lemma fget_fremove_other m i j : i <> j -> fget (fremove m i) j = fget m j.
Proof.
  intros Hij. induction m as [|[k w] m IH]; simpl; auto.
  destruct (N.eqb_spec k i); simpl.
  - subst. destruct (N.eqb_spec i j); [congruence|auto].
  - destruct (N.eqb_spec k j); auto.
Qed.

Lemma keys_fremove_in m i j : In j (keys (fremove m i)) -> In j (keys m).
Proof.
  induction m as [|[k w] m IH]; simpl; auto.
  destruct (N.eqb_spec k i); simpl; [auto|]. intros [H|H]; auto.
Qed.

Lemma nodup_keys_fremove m i : NoDup (keys m) -> NoDup (keys (fremove m i)).
Proof.
  induction m as [|[k w] m IH]; simpl; intros H; auto.
  inversion H as [|? ? Hn Hd]; subst.
  destruct (N.eqb_spec k i); simpl; auto.
  constructor; auto. intros Hin. apply keys_fremove_in in Hin. auto.
Qed.

Lemma fget0_fset m i j v : fget0 (fset m i v) j = if i =? j then v else fget0 m j.
Proof. unfold fget0. rewrite fget_fset. destruct (i =? j); auto. Qed.

Lemma fmax_ge m i v : fget m i = Some v -> v <= fmax m.
Proof.
  induction m as [|[k w] m IH]; simpl; [discriminate|].
  destruct (N.eqb_spec k i); intros H.
  - inversion H; subst. lia.
  - apply IH in H. lia.
Qed.

Lemma fmax_bound m b : (forall i v, fget m i = Some v -> v < b) -> NoDup (keys m) -> 0 < b -> fmax m < b.
Proof.
  induction m as [|[k w] m IH]; simpl; intros H Hnd Hb; [lia|].
  inversion Hnd as [|? ? Hn Hd]; subst.
  assert (w < b) by (apply (H k); rewrite N.eqb_refl; auto).
  assert (fmax m < b).
  { apply IH; auto. intros i v Hi. apply (H i). destruct (N.eqb_spec k i); auto.
    subst. exfalso. apply fget_none_notin in Hn. congruence. }
  lia.
Qed.

Lemma len_app {A} (a b : list A) : len (a ++ b) = len a + len b.
Proof. unfold len. rewrite app_length. lia. Qed.

Lemma nth_res_ok {A} (l : list A) n x : nth_res l n = Ok x <-> nth_error l n = Some x.
Proof.
  revert n; induction l as [|y l IH]; intros [|n]; simpl; try (split; discriminate).
  - split; intros H; inversion H; auto.
  - apply IH.
Qed.

Lemma nth_res_lt {A} (l : list A) n : (n < length l)%nat -> exists x, nth_res l n = Ok x.
Proof.
  revert n; induction l as [|y l IH]; intros [|n]; simpl; intros H; try lia; eauto.
  apply IH. lia.
Qed.

Lemma get_at_ok {A} (l : list A) i x : get_at l i = Ok x <-> (i < len l /\ nth_error l (nat_of i) = Some x).
Proof.
  unfold get_at. destruct (N.ltb_spec i (len l)).
  - rewrite nth_res_ok. tauto.
  - split; [discriminate|]. intros [H1 _]. lia.
Qed.

Lemma get_at_not_disabled {A} (l : list A) i : get_at l i <> Disabled.
Proof.
  unfold get_at. destruct (i <? len l); [|discriminate].
  generalize (nat_of i). induction l as [|y l IH]; intros [|n]; simpl; try discriminate. apply IH.
Qed.

Lemma get_at_lt {A} (l : list A) i : i < len l -> exists x, get_at l i = Ok x.
Proof.
  intros H. unfold get_at. destruct (N.ltb_spec i (len l)); [|lia].
  apply nth_res_lt. unfold len, nat_of in *. lia.
Qed.

Lemma set_nth_length {A} (l : list A) n x : length (set_nth l n x) = length l.
Proof. revert n; induction l; intros [|n]; simpl; auto. Qed.

Lemma set_at_length {A} (l : list A) i x : length (set_at l i x) = length l.
Proof. unfold set_at. destruct (i <? len l); auto using set_nth_length. Qed.

Lemma len_set_at {A} (l : list A) i x : len (set_at l i x) = len l.
Proof. unfold len. rewrite set_at_length. auto. Qed.

Lemma nth_error_set_nth {A} (l : list A) n m x :
  nth_error (set_nth l n x) m = if Nat.eqb n m then (if Nat.ltb n (length l) then Some x else None) else nth_error l m.
Proof.
  revert n m; induction l as [|y l IH]; intros n m.
  - destruct (Nat.eqb n m); destruct n; destruct m; reflexivity.
  - destruct n, m; simpl; auto. rewrite IH. reflexivity.
Qed.

Lemma nth_error_set_at {A} (l : list A) i m x :
  nth_error (set_at l i x) m = if (i <? len l) && Nat.eqb (nat_of i) m then Some x else nth_error l m.
Proof.
  unfold set_at. destruct (N.ltb_spec i (len l)); simpl; auto.
  rewrite nth_error_set_nth. destruct (Nat.eqb (nat_of i) m); auto.
  destruct (Nat.ltb_spec (nat_of i) (length l)); auto. unfold len, nat_of in *. lia.
Qed.

Lemma nat_of_inj i j : nat_of i = nat_of j -> i = j.
Proof. unfold nat_of. lia. Qed.

Lemma nth_error_ext {A} : forall (l l' : list A), (forall n, nth_error l n = nth_error l' n) -> l = l'.
Proof.
  induction l as [|x l IH]; intros [|y l'] H; auto.
  - specialize (H O). discriminate.
  - specialize (H O). discriminate.
  - f_equal; [specialize (H O); simpl in H; congruence | apply IH; intros n; apply (H (S n))].
Qed.

Lemma get_at_set_at_other {A} (l : list A) i j x : i <> j -> get_at (set_at l i x) j = get_at l j.
Proof.
  intros Hij. unfold get_at. rewrite len_set_at. destruct (N.ltb_spec j (len l)); auto.
  destruct (nth_res l (nat_of j)) as [y| |] eqn:E.
  - apply nth_res_ok in E. apply nth_res_ok. rewrite nth_error_set_at.
    destruct (Nat.eqb_spec (nat_of i) (nat_of j)) as [E2|E2]; [apply nat_of_inj in E2; congruence|]. rewrite andb_false_r. auto.
  - exfalso. destruct (nth_res_lt l (nat_of j)) as [y Hy]; [unfold len, nat_of in *; lia|]. congruence.
  - exfalso. destruct (nth_res_lt l (nat_of j)) as [y Hy]; [unfold len, nat_of in *; lia|]. congruence.
Qed.

Lemma get_at_set_at_same {A} (l : list A) i x : i < len l -> get_at (set_at l i x) i = Ok x.
Proof.
  intros H. apply get_at_ok. rewrite len_set_at. split; auto. rewrite nth_error_set_at.
  destruct (N.ltb_spec i (len l)); [|lia]. rewrite Nat.eqb_refl. auto.
Qed.

Lemma set_at_comm {A} (l : list A) i j x y : i <> j -> set_at (set_at l i x) j y = set_at (set_at l j y) i x.
Proof.
  intros Hij. apply nth_error_ext. intros n. rewrite !nth_error_set_at, !len_set_at.
  destruct (i <? len l), (j <? len l); simpl; auto;
    destruct (Nat.eqb_spec (nat_of j) n), (Nat.eqb_spec (nat_of i) n); auto.
  subst. exfalso. apply Hij. apply nat_of_inj. congruence.
Qed.

Lemma get_at_set_at_same' {A} (l : list A) i x y : get_at l i = Ok y -> get_at (set_at l i x) i = Ok x.
Proof. intros H. apply get_at_ok in H. destruct H. apply get_at_set_at_same. auto. Qed.

Lemma set_at_set_at {A} (l : list A) i x y : set_at (set_at l i x) i y = set_at l i y.
Proof.
  apply nth_error_ext. intros n. rewrite !nth_error_set_at, !len_set_at.
  destruct (i <? len l); simpl; auto. destruct (Nat.eqb (nat_of i) n); auto.
Qed.

Lemma set_at_same {A} (l : list A) i x : get_at l i = Ok x -> set_at l i x = l.
Proof.
  intros H. apply get_at_ok in H. destruct H as [Hlt Hn]. apply nth_error_ext. intros n.
  rewrite nth_error_set_at. destruct (N.ltb_spec i (len l)); [|lia]. simpl.
  destruct (Nat.eqb_spec (nat_of i) n); subst; auto.
Qed.

Lemma get_at_single {A} (x : A) : get_at [x] 0 = Ok x.
Proof. reflexivity. Qed.

Lemma get_at_nth {A} (l : list A) i x : get_at l i = Ok x -> nth_error l (nat_of i) = Some x.
Proof. intros H. apply get_at_ok in H. tauto. Qed.

Lemma nat_of_of_nat n : nat_of (N.of_nat n) = n.
Proof. unfold nat_of. lia. Qed.

Lemma nth_error_some_lt {A} (l : list A) n x : nth_error l n = Some x -> (n < length l)%nat.
Proof. intros H. apply nth_error_Some. congruence. Qed.

Lemma sumN_cons a l : sumN (a :: l) = a + sumN l.
Proof. reflexivity. Qed.
Lemma sumN_nil : sumN [] = 0.
Proof. reflexivity. Qed.
Arguments sumN : simpl never.

Lemma sumN_app a b : sumN (a ++ b) = sumN a + sumN b.
Proof. induction a as [|x a IH]; cbn [app]; rewrite ?sumN_cons, ?sumN_nil; lia. Qed.

Lemma sumN_map_perm {A} (f : A -> N) l l' : Permutation l l' -> sumN (map f l) = sumN (map f l').
Proof. induction 1; cbn [map]; rewrite ?sumN_cons; lia. Qed.

Lemma sumN_map_zero {A} (f : A -> N) l : (forall x, In x l -> f x = 0) -> sumN (map f l) = 0.
Proof.
  induction l as [|a l IH]; cbn [map]; intros H; auto.
  rewrite sumN_cons, H, IH; auto; [intros; apply H; right; auto | left; auto].
Qed.

Lemma sumN_zero_inv {A} (f : A -> N) l : sumN (map f l) = 0 -> forall x, In x l -> f x = 0.
Proof.
  induction l as [|a l IH]; cbn [map]; intros H x Hin; [destruct Hin|].
  rewrite sumN_cons in H. destruct Hin as [->|Hin]; [lia|]. apply IH; auto. lia.
Qed.

Lemma insert_sorted_perm {A} (le : A -> A -> bool) x l : Permutation (insert_sorted le x l) (x :: l).
Proof.
  induction l as [|y l IH]; simpl; auto.
  destruct (le x y); auto.
  eapply perm_trans; [apply perm_skip, IH | apply perm_swap].
Qed.

Lemma isort_perm {A} (le : A -> A -> bool) l : Permutation (isort le l) l.
Proof.
  induction l as [|x l IH]; simpl; auto.
  eapply perm_trans; [apply insert_sorted_perm | apply perm_skip, IH].
Qed.

Lemma existsb_perm {A} (p : A -> bool) l l' : Permutation l l' -> existsb p l = existsb p l'.
Proof.
  induction 1 as [|x l l' _ IH|x y l|l l' l'' _ IH1 _ IH2]; auto; cbn [existsb].
  - rewrite IH. reflexivity.
  - destruct (p x), (p y); reflexivity.
  - congruence.
Qed.


Lemma in_removeN x y l : In y (removeN x l) -> In y l.
Proof.
  induction l as [|z l IH]; simpl; auto. destruct (N.eqb_spec z x); simpl; auto. intros [H|H]; auto.
Qed.

Lemma in_removeN_iff x y l : NoDup l -> (In y (removeN x l) <-> In y l /\ y <> x).
Proof.
  induction l as [|z l IH]; simpl; intros Hnd; [tauto|].
  inversion Hnd as [|? ? Hn Hd]; subst.
  destruct (N.eqb_spec z x); simpl.
  - subst. split.
    + intros H. split; auto. intros ->. auto.
    + intros [[H|H] Hne]; [congruence|auto].
  - rewrite IH; auto. split.
    + intros [H|[H Hne]]; [subst; auto | auto].
    + intros [[H|H] Hne]; auto.
Qed.

Lemma nodup_removeN x l : NoDup l -> NoDup (removeN x l).
Proof.
  induction l as [|z l IH]; simpl; intros Hnd; auto.
  inversion Hnd as [|? ? Hn Hd]; subst.
  destruct (N.eqb_spec z x); auto.
  constructor; auto. intros H. apply in_removeN in H. auto.
Qed.

Lemma length_removeN x l : In x l -> S (length (removeN x l)) = length l.
Proof.
  induction l as [|z l IH]; simpl; [tauto|].
  destruct (N.eqb_spec z x); auto. intros [H|H]; [congruence|]. simpl. rewrite IH; auto.
Qed.

Lemma removeN_comm x y l : removeN x (removeN y l) = removeN y (removeN x l).
Proof.
  induction l as [|z l IH]; simpl; auto.
  destruct (N.eqb_spec z y) as [Hy|Hy], (N.eqb_spec z x) as [Hx|Hx]; simpl.
  - subst. auto.
  - destruct (N.eqb_spec z y); [auto|congruence].
  - destruct (N.eqb_spec z x); [auto|congruence].
  - destruct (N.eqb_spec z y), (N.eqb_spec z x); congruence.
Qed.

Lemma memN_in x l : memN x l = true <-> In x l.
Proof.
  unfold memN. rewrite existsb_exists. split.
  - intros [y [H1 H2]]. apply N.eqb_eq in H2. subst; auto.
  - intros H. exists x. split; auto. apply N.eqb_refl.
Qed.

Lemma memN_false x l : memN x l = false <-> ~ In x l.
Proof. rewrite <- memN_in. destruct (memN x l); split; congruence. Qed.

Lemma memN_removeN_other x y l : x <> y -> memN y (removeN x l) = memN y l.
Proof.
  intros Hxy. induction l as [|z l IH]; simpl; auto.
  destruct (N.eqb_spec z x).
  - subst. unfold memN. simpl. destruct (N.eqb_spec y x); [congruence|auto].
  - unfold memN in *. simpl. rewrite IH. auto.
Qed.

Lemma mask_sum_cons per g m coef :
  mask_sum per (g :: m) coef = match nth_error per (nat_of g) with Some uf => coef uf + mask_sum per m coef | None => mask_sum per m coef end.
Proof. reflexivity. Qed.
