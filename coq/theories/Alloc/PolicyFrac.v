(** C16 - the min-fraction rule as a theorem: whatever claim function serves a request, the fractional
    remainder is taken from the partly used index of its group with the LEAST free fraction that still fits;
    only if no partly used index fits, a whole free index of the group is split.
    Holds for ALL pools and ALL requests (no invariant is needed). *)
From Coq Require Import Permutation.
From HQ Require Import Base.Prelude Gen.Consts Alloc.Model Alloc.Spec Alloc.Lemmas Alloc.Group Alloc.Pool Alloc.Inv Alloc.Theorems Alloc.Mirror Alloc.MirrorSystem Alloc.CompleteTight Alloc.PolicyBase.
Require Import ZifyBool.
Open Scope N_scope.

(** the monitor [min_fraction_ok], per AllocationIndex *)
Definition mf_g (g : group) (ix : aidx) : bool :=
  match cand_min (g_fr g) (ai_frac ix) with
  | Some mn => match fget (g_fr g) (ai_index ix) with Some v => v =? mn | None => false end
  | None => memN (ai_index ix) (g_idx g)
  end.
Definition mf_ix (gs : list group) (ix : aidx) : bool :=
  if ai_frac ix =? 0 then true
  else match nth_error gs (nat_of (ai_group ix)) with Some g => mf_g g ix | None => false end.

Lemma min_fraction_ok_eq before e ra :
  min_fraction_ok before e ra =
  match nth_error before (nat_of (e_res e)) with
  | Some p => forallb (mf_ix (pool_groups p)) (ra_indices ra)
  | None => true
  end.
Proof. reflexivity. Qed.

Definition mfP (gs0 : list group) (ix : aidx) : Prop := mf_ix gs0 ix = true.

Lemma mfP_whole gs0 i gi : mfP gs0 (mkAidx i gi 0).
Proof. reflexivity. Qed.

Lemma mfP_block gs0 gi (l : list N) : Forall (mfP gs0) (map (fun i => mkAidx i gi 0) l).
Proof. apply Forall_forall. intros x Hx. apply in_map_iff in Hx. destruct Hx as [i [<- _]]. apply mfP_whole. Qed.

Lemma mf_match g0 fr wit i f gi :
  best_fraction_match (g_fr g0) fr wit = Ok (Some (i, f)) -> mf_g g0 (mkAidx i gi fr) = true.
Proof.
  intros H. apply bfm_some_min in H. destruct H as [Hc Hf]. unfold mf_g. cbn [ai_frac ai_index].
  rewrite Hc, Hf. apply N.eqb_refl.
Qed.

Lemma mf_split g0 fr wit i gi :
  best_fraction_match (g_fr g0) fr wit = Ok None -> In i (g_idx g0) -> mf_g g0 (mkAidx i gi fr) = true.
Proof.
  intros H Hin. apply bfm_none in H. unfold mf_g. cbn [ai_frac ai_index]. rewrite H. apply memN_in. auto.
Qed.

Lemma mf_ix_intro gs0 gi g0 ix : get_at gs0 gi = Ok g0 -> ai_group ix = gi -> mf_g g0 ix = true -> mfP gs0 ix.
Proof.
  intros Hg Hgi Hm. unfold mfP, mf_ix. destruct (ai_frac ix =? 0); auto.
  apply get_at_ok in Hg. destruct Hg as [_ Hn]. rewrite Hgi, Hn. auto.
Qed.

(** the current groups relative to the groups before the claim, while no fraction has been taken:
    same fraction maps, index stacks only shortened *)
Definition Rel (gs0 gs : list group) : Prop :=
  forall gi g, get_at gs gi = Ok g ->
    exists g0, get_at gs0 gi = Ok g0 /\ g_fr g = g_fr g0 /\ incl (g_idx g) (g_idx g0).

Lemma Rel_refl gs : Rel gs gs.
Proof. intros gi g H. exists g. split; auto. split; auto. apply incl_refl. Qed.

Lemma Rel_set_at gs0 gs gi g g' :
  Rel gs0 gs -> get_at gs gi = Ok g -> g_fr g' = g_fr g -> incl (g_idx g') (g_idx g) -> Rel gs0 (set_at gs gi g').
Proof.
  intros HR Hg Hf Hi gj gg Hgg. destruct (N.eq_dec gi gj) as [->|Hne].
  - rewrite (get_at_set_at_same' _ _ _ _ Hg) in Hgg. inversion Hgg; subst gg.
    destruct (HR _ _ Hg) as (g0 & A & B & C). exists g0. split; auto. split; [congruence|].
    eapply incl_tran; eauto.
  - rewrite get_at_set_at_other in Hgg by auto. auto.
Qed.

Lemma take_fraction_mf g g0 fr gid wit out g' out' :
  g_fr g = g_fr g0 -> incl (g_idx g) (g_idx g0) ->
  take_fraction_index_or_split g fr gid wit out = Ok (g', out') ->
  (fr = 0 /\ out' = out /\ g' = g)
  \/ (fr <> 0 /\ exists F, out' = out ++ [F] /\ ai_group F = gid /\ ai_frac F = fr /\ mf_g g0 F = true).
Proof.
  intros Hf Hi H. unfold take_fraction_index_or_split in H.
  destruct (N.eqb_spec fr 0) as [Hz|Hz]; [inversion H; subst; auto|]. right. split; auto.
  destruct (best_fraction_match (g_fr g) fr wit) as [[[i f]|]| |] eqn:Eb; cbn [bind] in H; try discriminate.
  - inversion H; subst. eexists. split; [reflexivity|]. cbn [ai_group ai_frac]. repeat split; auto.
    rewrite Hf in Eb. eapply mf_match; eauto.
  - destruct (g_idx g) as [|i rest] eqn:Es; [discriminate|]. inversion H; subst.
    eexists. split; [reflexivity|]. cbn [ai_group ai_frac]. repeat split; auto.
    rewrite Hf in Eb. eapply mf_split; eauto. apply Hi. left; auto.
Qed.

Lemma try_take_fraction_mf g g0 fr gid wit out g' out' took :
  g_fr g = g_fr g0 ->
  try_take_fraction g fr gid wit out = Ok (g', out', took) ->
  (took = false /\ out' = out /\ g' = g)
  \/ (took = true /\ fr <> 0 /\ g_idx g' = g_idx g
      /\ exists F, out' = out ++ [F] /\ ai_group F = gid /\ ai_frac F = fr /\ mf_g g0 F = true).
Proof.
  intros Hf H. unfold try_take_fraction in H.
  destruct (N.eqb_spec fr 0) as [Hz|Hz]; [inversion H; subst; auto|].
  destruct (best_fraction_match (g_fr g) fr wit) as [[[i f]|]| |] eqn:Eb; cbn [bind] in H; try discriminate.
  - inversion H; subst. right. repeat split; auto. eexists. split; [reflexivity|]. cbn [ai_group ai_frac].
    repeat split; auto. rewrite Hf in Eb. eapply mf_match; eauto.
  - inversion H; subst. auto.
Qed.

Lemma try_take_fraction_idx g fr gid wit out g' out' took :
  try_take_fraction g fr gid wit out = Ok (g', out', took) -> g_idx g' = g_idx g.
Proof.
  intros H. unfold try_take_fraction in H.
  destruct (fr =? 0); [inversion H; subst; auto|].
  destruct (best_fraction_match (g_fr g) fr wit) as [[[i f]|]| |]; cbn [bind] in H; try discriminate; inversion H; subst; auto.
Qed.


Definition in_selP (sel : option (list N)) (ix : aidx) : Prop := in_sel sel (ai_group ix) = true.

Lemma sel_in sel pos gi : (match sel with Some s => get_at s pos | None => Ok pos end) = Ok gi -> in_sel sel gi = true.
Proof.
  destruct sel as [s|]; [|reflexivity]. intros H. cbn [in_sel]. apply existsb_exists. exists gi. split; [|apply N.eqb_refl].
  apply get_at_nth in H. eapply nth_error_In; eauto.
Qed.

Lemma find_min_fit_sel amounts : forall i remaining sel gi a,
  find_min_fit amounts i remaining sel = Some (gi, a) -> in_sel sel gi = true.
Proof.
  induction amounts as [|x rest IH]; intros i remaining sel gi a H; cbn [find_min_fit] in H; [discriminate|].
  destruct ((remaining <=? x) && in_sel sel i) eqn:E.
  - apply andb_true_iff in E. destruct E as [_ Es].
    destruct (find_min_fit rest (i + 1) remaining sel) as [[j b]|] eqn:Er.
    + destruct (x <=? b); inversion H; subst; eauto.
    + inversion H; subst; auto.
  - eauto.
Qed.

Lemma find_max_sel amounts : forall i sel gi a, find_max amounts i sel = Some (gi, a) -> in_sel sel gi = true.
Proof.
  induction amounts as [|x rest IH]; intros i sel gi a H; cbn [find_max] in H; [discriminate|].
  destruct (in_sel sel i) eqn:Es.
  - destruct (find_max rest (i + 1) sel) as [[j b]|] eqn:Er.
    + destruct (b <? x); inversion H; subst; eauto.
    + inversion H; subst; auto.
  - eauto.
Qed.

(** [gs0]: the groups before the claim *)
Definition okP (sel : option (list N)) (gs0 : list group) (ix : aidx) : Prop := in_selP sel ix /\ mfP gs0 ix.

Lemma okP_block sel gs0 gi (l : list N) : in_sel sel gi = true -> Forall (okP sel gs0) (map (fun i => mkAidx i gi 0) l).
Proof. intros H. apply Forall_forall. intros x Hx. apply in_map_iff in Hx. destruct Hx as [i [<- _]]. split; [exact H|reflexivity]. Qed.

Lemma okP_one sel gs0 out ix : Forall (okP sel gs0) out -> in_sel sel (ai_group ix) = true -> mfP gs0 ix -> Forall (okP sel gs0) (out ++ [ix]).
Proof. intros Ho H1 H2. apply Forall_app. split; [exact Ho|]. constructor; [split; assumption|constructor]. Qed.

Lemma okP_mf sel gs0 l : Forall (okP sel gs0) l -> Forall (mfP gs0) l.
Proof. apply Forall_impl. intros ix H. apply H. Qed.
Lemma okP_sel sel gs0 l : Forall (okP sel gs0) l -> Forall (in_selP sel) l.
Proof. apply Forall_impl. intros ix H. apply H. Qed.


Lemma scatter_loop_ok gs0 fuel : forall gs sel units fr pos wit out gs' out',
  (fr <> 0 -> Rel gs0 gs) -> Forall (okP sel gs0) out ->
  scatter_loop fuel gs sel units fr pos wit out = Ok (gs', out') ->
  Forall (okP sel gs0) out'.
Proof.
  induction fuel as [|fuel IH]; intros gs sel units fr pos wit out gs' out' HR Hout Hl; cbn [scatter_loop] in Hl.
  - destruct ((units =? 0) && (fr =? 0)); [|discriminate]. inversion Hl; subst; auto.
  - destruct ((units =? 0) && (fr =? 0)) eqn:E0; [inversion Hl; subst; auto|].
    destruct (match sel with Some s => get_at s pos | None => Ok pos end) as [gi| |] eqn:Egi; cbn [bind] in Hl; try discriminate.
    pose proof (sel_in _ _ _ Egi) as Hgi.
    destruct (get_at gs gi) as [g| |] eqn:Eg; cbn [bind] in Hl; try discriminate.
    destruct (N.ltb_spec 0 units) as [Hpos|Hz].
    + destruct (g_idx g) as [|i rest] eqn:Es.
      * eapply IH; eauto.
      * eapply IH; [| |exact Hl].
        -- intros Hfr. eapply Rel_set_at; eauto. cbn [g_idx]. rewrite Es. apply incl_tl, incl_refl.
        -- apply okP_one; auto. apply mfP_whole.
    + assert (Hu : units = 0) by lia. subst units.
      assert (Hfr : fr <> 0).
      { intros ->. rewrite N.eqb_refl in E0. discriminate. }
      destruct (HR Hfr _ _ Eg) as (g0 & Hg0 & Hf0 & Hi0).
      destruct (best_fraction_match (g_fr g) fr wit) as [[[i f]|]| |] eqn:Eb; cbn [bind] in Hl; try discriminate.
      * eapply IH; [| |exact Hl]; [intros X; congruence|]. apply okP_one; auto.
        eapply mf_ix_intro; eauto. rewrite Hf0 in Eb. eapply mf_match; eauto.
      * destruct (g_idx g) as [|i rest] eqn:Es.
        -- eapply IH; eauto.
        -- eapply IH; [| |exact Hl]; [intros X; congruence|]. apply okP_one; auto.
           eapply mf_ix_intro; eauto. rewrite Hf0 in Eb. eapply mf_split; eauto. apply Hi0. left; auto.
Qed.

Lemma claim_scatter_ok a gs sel wit gs' out :
  claim_scatter_from_groups a gs sel wit = Ok (gs', out) -> Forall (okP sel gs) out.
Proof.
  intros Hc. unfold claim_scatter_from_groups in Hc. destruct (split a) as [units fr].
  destruct (scatter_loop (scatter_fuel gs sel) gs sel units fr 0 wit []) as [[gs1 raw]| |] eqn:El; cbn [bind] in Hc; try discriminate.
  inversion Hc; subst.
  eapply Permutation_Forall; [apply Permutation_sym, isort_perm|].
  eapply scatter_loop_ok; [| |exact El]; [intros _; apply Rel_refl | constructor].
Qed.


Lemma snd_split_mk0 u : snd (split (mk_amount u 0)) = 0.
Proof. unfold mk_amount. rewrite split_mk by apply FPU_pos. reflexivity. Qed.

Lemma compact_loop_ok gs0 fuel : forall gs amounts sel remaining wit out fidx gs' out' fidx',
  (snd (split remaining) <> 0 -> Rel gs0 gs) -> Forall (okP sel gs0) out ->
  compact_loop fuel gs amounts sel remaining wit out fidx = Ok (gs', out', fidx') ->
  Forall (okP sel gs0) out'.
Proof.
  induction fuel as [|fuel IH]; intros gs amounts sel remaining wit out fidx gs' out' fidx' HR Hout Hl; [discriminate|].
  rewrite compact_loop_unfold in Hl.
  destruct (split_recompose remaining) as [Hrec Hfrlt].
  destruct (find_min_fit amounts 0 remaining sel) as [[gi a]|] eqn:Efm.
  - pose proof (find_min_fit_sel _ _ _ _ _ _ Efm) as Hgi. destruct (split remaining) as [units fr] eqn:Es. cbn [fst snd] in *.
    destruct (get_at gs gi) as [g| |] eqn:Eg; cbn [bind] in Hl; try discriminate.
    destruct (take_indices (g_idx g) gi units out) as [[st out1]| |] eqn:Et; cbn [bind] in Hl; try discriminate.
    destruct (take_fraction_index_or_split (mkGroup st (g_fr g)) fr gi wit out1) as [[g2 out2]| |] eqn:Ef; cbn [bind] in Hl; try discriminate.
    inversion Hl; subst gs' out' fidx'. clear Hl.
    apply take_indices_inv in Et. destruct Et as (Hle & -> & ->).
    assert (Hout1 : Forall (okP sel gs0) (out ++ map (fun i => mkAidx i gi 0) (firstn (nat_of units) (g_idx g))))
      by (apply Forall_app; split; auto; apply okP_block; auto).
    destruct (N.eq_dec fr 0) as [Hz|Hz].
    + subst fr. unfold take_fraction_index_or_split in Ef. rewrite N.eqb_refl in Ef. inversion Ef; subst. auto.
    + destruct (HR Hz _ _ Eg) as (g0 & Hg0 & Hf0 & Hi0).
      destruct (take_fraction_mf (mkGroup (skipn (nat_of units) (g_idx g)) (g_fr g)) g0 _ _ _ _ _ _ Hf0 (incl_tran (incl_skipn _ _) Hi0) Ef) as [(Hz' & _)|(_ & F & -> & HgF & HfF & Hm)]; [congruence|].
      apply okP_one; auto; [rewrite HgF; exact Hgi|]. eapply mf_ix_intro; eauto.
  - destruct (find_max amounts 0 sel) as [[gi a]|] eqn:Efx; [|discriminate]. pose proof (find_max_sel _ _ _ _ _ Efx) as Hgi.
    destruct (split remaining) as [units fr] eqn:Es. cbn [fst snd] in *.
    destruct (get_at gs gi) as [g| |] eqn:Eg; cbn [bind] in Hl; try discriminate.
    destruct (N.ltb_spec units (len (g_idx g))) as [|Hge]; [discriminate|].
    destruct (take_indices (g_idx g) gi (len (g_idx g)) out) as [[st out1]| |] eqn:Et; cbn [bind] in Hl; try discriminate.
    destruct (try_take_fraction (mkGroup st (g_fr g)) fr gi wit out1) as [[[g2 out2] took]| |] eqn:Ef; cbn [bind] in Hl; try discriminate.
    apply take_indices_inv in Et. destruct Et as (Hle & -> & ->).
    assert (Hout1 : Forall (okP sel gs0) (out ++ map (fun i => mkAidx i gi 0) (firstn (nat_of (len (g_idx g))) (g_idx g))))
      by (apply Forall_app; split; auto; apply okP_block; auto).
    destruct (N.eq_dec fr 0) as [Hz|Hz].
    + subst fr. unfold try_take_fraction in Ef. rewrite N.eqb_refl in Ef. inversion Ef; subst.
      eapply IH; [| |exact Hl]; auto.
      intros X. exfalso. apply X. apply snd_split_mk0.
    + destruct (HR Hz _ _ Eg) as (g0 & Hg0 & Hf0 & Hi0).
      destruct (try_take_fraction_mf (mkGroup (skipn (nat_of (len (g_idx g))) (g_idx g)) (g_fr g)) g0 _ _ _ _ _ _ _ Hf0 Ef) as [(-> & -> & ->)|(-> & _ & Hidx & F & -> & HgF & HfF & Hm)].
      * eapply IH; [| |exact Hl]; auto. intros _.
        eapply Rel_set_at; eauto. cbn [g_idx]. apply incl_skipn.
      * eapply IH; [| |exact Hl].
        -- intros X. exfalso. apply X. apply snd_split_mk0.
        -- apply okP_one; auto; [rewrite HgF; exact Hgi|]. eapply mf_ix_intro; eauto.
Qed.

Lemma claim_compact_ok a gs sel wit gs' out :
  claim_compact_from_groups a gs sel wit = Ok (gs', out) -> Forall (okP sel gs) out.
Proof.
  intros Hc. unfold claim_compact_from_groups in Hc.
  destruct (compact_loop (length gs + 2) gs (map group_amount gs) sel a wit [] None) as [[[gs1 raw] fidx]| |] eqn:El; cbn [bind] in Hc; try discriminate.
  inversion Hc; subst.
  assert (Hraw : Forall (okP sel gs) raw).
  { eapply compact_loop_ok; [| |exact El]; [intros _; apply Rel_refl | constructor]. }
  destruct fidx as [k|]; auto.
  eapply Permutation_Forall; [apply Permutation_sym, swap_to_last_perm|]. auto.
Qed.


Lemma claim_all_whole gs : forall gid gs' out, claim_all_from_groups gs gid = (gs', out) -> Forall whole out.
Proof.
  induction gs as [|g gs IH]; intros gid gs' out H; cbn [claim_all_from_groups] in H.
  - inversion H; subst. constructor.
  - destruct (claim_all_from_groups gs (gid + 1)) as [gs'' out''] eqn:E. inversion H; subst.
    apply Forall_app. split; [|eapply IH; eauto].
    apply Forall_forall. intros x Hx. apply in_map_iff in Hx. destruct Hx as [i [<- _]]. reflexivity.
Qed.

Lemma forallb_mf gs out : Forall (mfP gs) out -> forallb (mf_ix gs) out = true.
Proof. intros H. apply forallb_forall. rewrite Forall_forall in H. auto. Qed.

Theorem min_fraction_pool_claim p rid rq wit p' ra :
  pool_claim p rid rq wit = Ok (p', ra) -> forallb (mf_ix (pool_groups p)) (ra_indices ra) = true.
Proof.
  intros Hc. apply forallb_mf. destruct p as [|full g|full gs|full free]; cbn [pool_claim pool_groups] in *.
  - discriminate.
  - destruct (split_recompose (req_amount rq full)) as [_ Hfr].
    destruct (split (req_amount rq full)) as [units fr]. cbn [snd] in Hfr.
    destruct (take_indices (g_idx g) 0 units []) as [[st out1]| |] eqn:Et; cbn [bind] in Hc; try discriminate.
    destruct (take_fraction_index_or_split (mkGroup st (g_fr g)) fr 0 wit out1) as [[g2 out2]| |] eqn:Ef; cbn [bind] in Hc; try discriminate.
    inversion Hc; subst. cbn [ra_indices]. clear Hc.
    apply take_indices_inv in Et. destruct Et as (Hle & -> & ->). cbn [app] in Ef.
    destruct (take_fraction_mf (mkGroup (skipn (nat_of units) (g_idx g)) (g_fr g)) g fr 0 wit _ _ _ eq_refl (incl_skipn _ _) Ef)
      as [(_ & -> & _)|(_ & F & -> & HgF & HfF & Hm)].
    + apply mfP_block.
    + apply Forall_app. split; [apply mfP_block|]. constructor; [|constructor].
      eapply mf_ix_intro; eauto. reflexivity.
  - destruct rq as [[] a|]; try discriminate.
    + destruct (claim_scatter_from_groups a gs None wit) as [[gs' out]| |] eqn:E; cbn [bind] in Hc; try discriminate.
      inversion Hc; subst. cbn [ra_indices]. eapply okP_mf, claim_scatter_ok; eauto.
    + destruct (claim_all_from_groups gs 0) as [gs' out] eqn:E. inversion Hc; subst. cbn [ra_indices].
      apply claim_all_whole in E. eapply Forall_impl; [|exact E].
      intros ix Hx. unfold whole in Hx. unfold mfP, mf_ix. rewrite Hx. reflexivity.
  - destruct (free <? req_amount rq full); [discriminate|]. inversion Hc; subst. constructor.
Qed.

Theorem min_fraction_mask_claim p rid rq mask wit p' ra :
  claim_with_group_mask p rid rq mask wit = Ok (p', ra) -> forallb (mf_ix (pool_groups p)) (ra_indices ra) = true.
Proof.
  intros Hc. apply forallb_mf.
  destruct (claim_with_group_mask_inv _ _ _ _ _ _ _ Hc) as (full & gs & pol & a & gs' & out & -> & -> & -> & -> & Hl).
  destruct pol; cbv iota in Hl; try contradiction; apply (okP_mf (Some mask));
    first [eapply claim_scatter_ok; eassumption | eapply claim_compact_ok; eassumption].
Qed.

(** The monitor min-fraction as a theorem, for the claim of a non-coupled entry (ResourcePool::claim_resources:
    index pools, sum pools, scatter and `all` on group pools) ... *)
Theorem C16_min_fraction_direct : forall before e wit p p' ra,
  nth_error before (nat_of (e_res e)) = Some p ->
  pool_claim p (e_res e) (e_req e) wit = Ok (p', ra) ->
  min_fraction_ok before e ra = true.
Proof.
  intros before e wit p p' ra Hn Hc. rewrite min_fraction_ok_eq, Hn. eapply min_fraction_pool_claim; eauto.
Qed.

(** ... and for the claim of a coupled entry (claim_resources_with_group_mask: compact, compact!, tight, tight!
    with ANY group mask). *)
Theorem C16_min_fraction_coupled : forall before e mask wit p p' ra,
  nth_error before (nat_of (e_res e)) = Some p ->
  claim_with_group_mask p (e_res e) (e_req e) mask wit = Ok (p', ra) ->
  min_fraction_ok before e ra = true.
Proof.
  intros before e mask wit p p' ra Hn Hc. rewrite min_fraction_ok_eq, Hn. eapply min_fraction_mask_claim; eauto.
Qed.

(** non-vacuity: a tight claim over two groups whose remainder 0.25 is served by the partly used index with the
    least fitting free fraction (0.3 of index 7, not 0.6 of index 8) *)
Example min_fraction_example :
  let gs := [mkGroup [1; 0] []; mkGroup [3] [(8, 6000); (7, 3000)]] in
  let p := PGroups (mk_amount 5 0) gs in
  exists p' ra,
    claim_with_group_mask p 0 (Req Tight 12500) [0; 1] (Some 7) = Ok (p', ra)
    /\ ra_indices ra = [mkAidx 3 1 0; mkAidx 7 1 2500]
    /\ min_fraction_ok [p] (mkEntry 0 (Req Tight 12500)) ra = true.
Proof. eexists _, _. split; [vm_compute; reflexivity|]. vm_compute. repeat split. Qed.

Print Assumptions C16_min_fraction_direct.
Print Assumptions C16_min_fraction_coupled.
