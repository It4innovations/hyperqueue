(** What ResourceAllocator::claim_resources does, as a list of accepted claims on single pools.
    Every fact about a whole grant is a fold over this list; nothing else needs to open the two loops. *)
From Coq Require Import Permutation.
From HQ Require Import Base.Prelude Gen.Consts Alloc.Model Alloc.Spec Alloc.Lemmas Alloc.Group Alloc.Pool Alloc.Inv.
Open Scope N_scope.

(** one accepted claim: the entry served, the group selection (coupled entries only), the result *)
Record claim := mkClaim { cl_entry : entry; cl_mask : option mask; cl_ra : ralloc }.

Definition cl_res (c : claim) : N := e_res (cl_entry c).

Definition claim_step (w : witness) (pools : list pool) (c : claim) (pools' : list pool) : Prop :=
  let e := cl_entry c in
  exists p p', get_at pools (e_res e) = Ok p /\ pools' = set_at pools (e_res e) p'
    /\ claim_ok p p' (e_res e) (e_req e) (cl_ra c) = true
    /\ match cl_mask c with
       | None => is_groups p && is_relevant_for_coupling (e_req e) = false
                 /\ pool_claim p (e_res e) (e_req e) (frac_wit w (e_res e)) = Ok (p', cl_ra c)
       | Some m => claim_with_group_mask p (e_res e) (e_req e) m (frac_wit w (e_res e)) = Ok (p', cl_ra c)
       end.

Inductive claims (w : witness) : list pool -> list claim -> list pool -> Prop :=
| claims_nil pools : claims w pools [] pools
| claims_cons pools c pools1 tr pools' :
    claim_step w pools c pools1 -> claims w pools1 tr pools' -> claims w pools (c :: tr) pools'.

Lemma claims_app w pools tr1 pools1 tr2 pools2 :
  claims w pools tr1 pools1 -> claims w pools1 tr2 pools2 -> claims w pools (tr1 ++ tr2) pools2.
Proof. induction 1; intros H2; [exact H2 | econstructor; eauto]. Qed.

Lemma claim_step_res w pools c pools' : claim_step w pools c pools' -> ra_res (cl_ra c) = cl_res c.
Proof. intros (p & p' & _ & _ & Hok & _). apply (claim_ok_inv _ _ _ _ _ Hok). Qed.

(** a claim never changes the kind of a pool, so which entries are coupled is decided once *)
Lemma is_coupled_step w pools c pools' e : claim_step w pools c pools' -> is_coupled pools' e = is_coupled pools e.
Proof.
  intros (p & p' & Hg & -> & Hok & _). unfold is_coupled. rewrite nth_error_set_at.
  destruct ((e_res (cl_entry c) <? len pools) && Nat.eqb (nat_of (e_res (cl_entry c))) (nat_of (e_res e))) eqn:E; auto.
  apply andb_true_iff in E. destruct E as [_ E]. apply Nat.eqb_eq in E. rewrite <- E, (get_at_nth _ _ _ Hg).
  destruct (claim_ok_inv _ _ _ _ _ Hok) as (_ & _ & K & _). destruct p, p'; try discriminate K; reflexivity.
Qed.

Lemma filter_coupled_step w pools c pools' (f : bool -> bool) l :
  claim_step w pools c pools' -> filter (fun e => f (is_coupled pools' e)) l = filter (fun e => f (is_coupled pools e)) l.
Proof. intros H. apply filter_ext. intros e. rewrite (is_coupled_step _ _ _ _ e H). reflexivity. Qed.

(** the first loop: non-coupled entries are claimed, coupled ones set aside *)
Lemma claim_direct_claims w entries : forall pools acc coupling pools' acc' coupling',
  claim_direct pools entries w acc coupling = Ok (pools', acc', coupling') ->
  exists tr, claims w pools tr pools' /\ acc' = acc ++ map cl_ra tr
    /\ coupling' = coupling ++ filter (is_coupled pools) entries
    /\ map cl_entry tr = filter (fun e => negb (is_coupled pools e)) entries
    /\ Forall (fun c => cl_mask c = None) tr.
Proof.
  induction entries as [|e rest IH]; intros pools acc coupling pools' acc' coupling' Hc; cbn [claim_direct] in Hc.
  - inversion Hc; subst. exists []. rewrite !app_nil_r. repeat split; constructor.
  - destruct (get_at pools (e_res e)) as [p| |] eqn:Eg; cbn [bind] in Hc; try discriminate.
    assert (Hcp : is_coupled pools e = is_groups p && is_relevant_for_coupling (e_req e))
      by (unfold is_coupled; rewrite (get_at_nth _ _ _ Eg); reflexivity).
    cbn [filter]. rewrite Hcp. destruct (is_groups p && is_relevant_for_coupling (e_req e)) eqn:Ecp; cbn [negb].
    + destruct (IH _ _ _ _ _ _ Hc) as (tr & Htr & -> & -> & Hm & Hn). exists tr. rewrite <- app_assoc. auto.
    + unfold checked in Hc.
      destruct (pool_claim p (e_res e) (e_req e) (frac_wit w (e_res e))) as [[p' ra]| |] eqn:Epc; cbn [bind] in Hc; try discriminate.
      destruct (claim_ok p p' (e_res e) (e_req e) ra) eqn:Eok; try discriminate.
      assert (Hst : claim_step w pools (mkClaim e None ra) (set_at pools (e_res e) p')) by (exists p, p'; repeat split; assumption).
      destruct (IH _ _ _ _ _ _ Hc) as (tr & Htr & -> & -> & Hm & Hn). exists (mkClaim e None ra :: tr).
      rewrite (filter_coupled_step _ _ _ _ (fun b => b) _ Hst), (filter_coupled_step _ _ _ _ negb _ Hst) in *.
      split; [econstructor; eauto|]. cbn [map cl_entry cl_ra]. rewrite <- app_assoc, Hm. auto.
Qed.

(** the second loop: coupling.into_iter().zip(groups) *)
Lemma claim_coupled_claims w coupling : forall pools masks acc pools' acc',
  claim_coupled pools coupling masks w acc = Ok (pools', acc') ->
  exists tr, claims w pools tr pools' /\ acc' = acc ++ map cl_ra tr
    /\ map (fun c => (cl_entry c, cl_mask c)) tr = map (fun em => (fst em, Some (snd em))) (combine coupling masks).
Proof.
  induction coupling as [|e rest IH]; intros pools masks acc pools' acc' Hc; cbn [claim_coupled] in Hc.
  - inversion Hc; subst. exists []. rewrite app_nil_r. repeat split; constructor.
  - destruct masks as [|m masks]; [inversion Hc; subst; exists []; rewrite app_nil_r; repeat split; constructor|].
    destruct (get_at pools (e_res e)) as [p| |] eqn:Eg; cbn [bind] in Hc; try discriminate.
    unfold checked in Hc.
    destruct (claim_with_group_mask p (e_res e) (e_req e) m (frac_wit w (e_res e))) as [[p' ra]| |] eqn:Epc; cbn [bind] in Hc; try discriminate.
    destruct (claim_ok p p' (e_res e) (e_req e) ra) eqn:Eok; try discriminate.
    destruct (IH _ _ _ _ _ Hc) as (tr & Htr & -> & Hm). exists (mkClaim e (Some m) ra :: tr).
    split; [econstructor; [exists p, p'; repeat split; assumption|exact Htr]|]. cbn [map combine cl_entry cl_mask cl_ra fst snd].
    rewrite <- app_assoc, Hm. auto.
Qed.

Lemma solver_rows_len free entries : forall rows, solver_rows free entries = Ok rows -> length rows = length entries.
Proof.
  induction entries as [|e rest IH]; intros rows H; simpl in H.
  - inversion H; auto.
  - destruct (e_req e); try discriminate. destruct (get_at free (e_res e)); simpl in H; try discriminate.
    destruct (solver_rows free rest) as [rows'| |]; simpl in H; try discriminate.
    destruct (split amount). inversion H; subst. simpl. f_equal. auto.
Qed.

Lemma masks_feasible_len rows : forall masks, masks_feasible rows masks = true -> length masks = length rows.
Proof.
  induction rows as [|[[per u] f] rows IH]; intros [|m masks] H; simpl in H; try discriminate; auto.
  apply andb_true_iff in H. destruct H as [_ H]. simpl. f_equal. auto.
Qed.

Lemma group_solver_some free entries ws tie ans masks o :
  group_solver free entries ws tie ans = Ok (Some (masks, o)) ->
  ans = Some masks /\ length masks = length entries
  /\ exists rows, solver_rows free entries = Ok rows /\ masks_feasible rows masks = true.
Proof.
  unfold group_solver. intros H.
  destruct (solver_rows free entries) as [rows| |] eqn:Er; cbn [bind] in H; try discriminate.
  destruct (weights_objective entries _ ws []); cbn [bind] in H; try discriminate.
  destruct ans as [ms|]; [|destruct (masks_feasible rows _); discriminate].
  destruct (masks_feasible rows ms) eqn:Ef; try discriminate.
  destruct (weights_objective entries _ ws ms); cbn [bind] in H; try discriminate.
  inversion H; subst. split; auto. split; [|eauto].
  rewrite (masks_feasible_len _ _ Ef). eapply solver_rows_len; eauto.
Qed.

Lemma filter_split_perm {A} (f : A -> bool) l : Permutation (filter (fun x => negb (f x)) l ++ filter f l) l.
Proof.
  induction l as [|x l IH]; cbn [filter]; [constructor|].
  destruct (f x); cbn [negb app]; [|constructor; auto]. apply Permutation_sym, Permutation_cons_app, Permutation_sym, IH.
Qed.

Lemma map_fst_zip {A B} (l : list A) : forall (l' : list B), length l' = length l -> map fst (combine l l') = l.
Proof. induction l as [|x l IH]; intros [|y l'] H; cbn [length] in H; try discriminate; cbn [combine map fst]; f_equal; auto. Qed.

(** ResourceAllocator::claim_resources: the non-coupled entries in request order, then the coupled entries
    zipped with the solver's answer [ms]; the allocation is the results, sorted by resource id *)
Theorem claim_resources_claims a rq w pools' al :
  claim_resources a rq w = Ok (pools', al) ->
  exists trd trc ms,
    claims w (a_pools a) (trd ++ trc) pools' /\ Permutation (map cl_ra (trd ++ trc)) al
    /\ map cl_entry trd = filter (fun e => negb (is_coupled (a_pools a) e)) rq
    /\ Forall (fun c => cl_mask c = None) trd
    /\ map (fun c => (cl_entry c, cl_mask c)) trc
       = map (fun em => (fst em, Some (snd em))) (combine (coupled_entries (a_pools a) rq) ms)
    /\ (coupled_entries (a_pools a) rq = [] /\ ms = []
        \/ exists o, group_solver (a_free a) (coupled_entries (a_pools a) rq) (a_weights a) true (w_mask w) = Ok (Some (ms, o)))
    /\ Permutation (map cl_entry (trd ++ trc)) rq.
Proof.
  intros Hc. unfold claim_resources in Hc.
  pose proof (filter_split_perm (is_coupled (a_pools a)) rq) as Hsp.
  destruct (claim_direct (a_pools a) rq w [] []) as [[[pools acc] coupling]| |] eqn:Ed; cbn [bind] in Hc; try discriminate.
  destruct (claim_direct_claims _ _ _ _ _ _ _ _ Ed) as (trd & Htd & -> & -> & Hed & Hnd). cbn [app] in *.
  fold (coupled_entries (a_pools a) rq) in *.
  destruct (coupled_entries (a_pools a) rq) as [|e cp] eqn:Ecp.
  - inversion Hc; subst. exists trd, [], []. rewrite app_nil_r in *. rewrite Hed. repeat split; auto.
  - destruct (group_solver (a_free a) (e :: cp) (a_weights a) true (w_mask w)) as [[[ms obj]|]| |] eqn:Eg; cbn [bind] in Hc; try discriminate.
    destruct (claim_coupled pools (e :: cp) ms w (map cl_ra trd)) as [[pools2 acc2]| |] eqn:Ec; cbn [bind] in Hc; try discriminate.
    inversion Hc; subst pools' al.
    destruct (claim_coupled_claims _ _ _ _ _ _ _ Ec) as (trc & Htc & -> & Hec).
    assert (E : map cl_entry trc = e :: cp).
    { rewrite <- (map_fst_zip (e :: cp) ms) by apply (group_solver_some _ _ _ _ _ _ _ Eg).
      transitivity (map fst (map (fun c => (cl_entry c, cl_mask c)) trc)); [rewrite map_map; reflexivity|].
      rewrite Hec, map_map. reflexivity. }
    exists trd, trc, ms. split; [eapply claims_app; eauto|]. rewrite !map_app, Hed, E.
    split; [apply Permutation_sym, isort_perm|]. repeat split; eauto.
Qed.

Lemma claims_res w pools tr pools' : claims w pools tr pools' -> map ra_res (map cl_ra tr) = map cl_res tr.
Proof. induction 1 as [|pools c pools1 tr pools' Hs _ IH]; cbn [map]; [|rewrite IH, (claim_step_res _ _ _ _ Hs)]; reflexivity. Qed.

Lemma claims_fold (P : list pool -> allocation -> Prop) w tr0 :
  (forall pools acc c pools', In c tr0 -> P pools acc -> claim_step w pools c pools' -> P pools' (acc ++ [cl_ra c])) ->
  forall pools tr pools', claims w pools tr pools' -> incl tr tr0 -> forall acc, P pools acc -> P pools' (acc ++ map cl_ra tr).
Proof.
  intros Hstep pools tr pools' H. induction H as [|pools c pools1 tr pools' Hs _ IH]; intros Hi acc HP.
  - rewrite app_nil_r. exact HP.
  - cbn [map]. change (cl_ra c :: map cl_ra tr) with ([cl_ra c] ++ map cl_ra tr). rewrite app_assoc.
    apply IH; [intros x Hx; apply Hi; right; exact Hx|]. eapply Hstep; eauto. apply Hi. left. reflexivity.
Qed.

(** with pairwise distinct resource ids every claim is made on the pool as it was before the first one *)
Lemma claims_from_before w pools tr pools' :
  claims w pools tr pools' -> NoDup (map cl_res tr) -> Forall (fun c => exists q, claim_step w pools c q) tr.
Proof.
  induction 1 as [|pools c pools1 tr pools' Hs _ IH]; intros Hnd; constructor; [eauto|].
  cbn [map] in Hnd. inversion Hnd as [|? ? Hn Hnd']; subst.
  specialize (IH Hnd'). rewrite Forall_forall in *. intros c' Hin.
  destruct (IH c' Hin) as (q & p & p' & Hg & _ & Hrest). destruct Hs as (p0 & p0' & _ & -> & _).
  rewrite get_at_set_at_other in Hg by (intros E; apply Hn; unfold cl_res at 1; rewrite E; exact (in_map cl_res _ _ Hin)).
  exists (set_at pools (e_res (cl_entry c')) p'), p, p'. auto.
Qed.

(** what a grant says of one of its resource allocations: it is the result of an accepted claim for the entry
    [e] on the pool as it was before the grant - a direct one, or one with a group selection of the answer [ms] *)
Definition claimed_before (w : witness) (before : list pool) (cp : list entry) (ms : list mask) (e : entry) (ra : ralloc) : Prop :=
  exists p p', get_at before (e_res e) = Ok p /\ claim_ok p p' (e_res e) (e_req e) ra = true
    /\ (is_groups p && is_relevant_for_coupling (e_req e) = false
        /\ pool_claim p (e_res e) (e_req e) (frac_wit w (e_res e)) = Ok (p', ra)
        \/ exists m, In (e, m) (combine cp ms)
                     /\ claim_with_group_mask p (e_res e) (e_req e) m (frac_wit w (e_res e)) = Ok (p', ra)).

Theorem claim_resources_each a rq w pools' al :
  NoDup (map e_res rq) -> claim_resources a rq w = Ok (pools', al) ->
  exists ms,
    (coupled_entries (a_pools a) rq = [] /\ ms = []
     \/ exists o, group_solver (a_free a) (coupled_entries (a_pools a) rq) (a_weights a) true (w_mask w) = Ok (Some (ms, o)))
    /\ Forall (fun ra => exists e, In e rq /\ e_res e = ra_res ra
                                  /\ claimed_before w (a_pools a) (coupled_entries (a_pools a) rq) ms e ra) al.
Proof.
  intros Hnd Hc. destruct (claim_resources_claims _ _ _ _ _ Hc) as (trd & trc & ms & Htr & Hperm & _ & Hmd & Hec & Hsol & Hent).
  exists ms. split; [exact Hsol|]. eapply Permutation_Forall; [exact Hperm|]. apply Forall_map.
  assert (Hnd' : NoDup (map cl_res (trd ++ trc))).
  { unfold cl_res. rewrite <- (map_map cl_entry e_res). eapply Permutation_NoDup; [apply Permutation_sym, Permutation_map, Hent|exact Hnd]. }
  pose proof (claims_from_before _ _ _ _ Htr Hnd') as HB. rewrite Forall_forall in *. intros c Hin.
  destruct (HB c Hin) as (q & p & p' & Hg & _ & Hok & Hm).
  exists (cl_entry c). split; [eapply Permutation_in; [exact Hent|apply in_map; exact Hin]|].
  split; [symmetry; apply (claim_ok_inv _ _ _ _ _ Hok)|]. exists p, p'. split; [exact Hg|]. split; [exact Hok|].
  apply in_app_or in Hin. destruct Hin as [Hin|Hin].
  - left. rewrite (Hmd c Hin) in Hm. exact Hm.
  - right. assert (Hcm : In (cl_entry c, cl_mask c) (map (fun c => (cl_entry c, cl_mask c)) trc))
      by (apply (in_map (fun c => (cl_entry c, cl_mask c))); exact Hin).
    rewrite Hec in Hcm. apply in_map_iff in Hcm. destruct Hcm as ([e' m] & E & Hcm). cbn [fst snd] in E.
    inversion E as [[E1 E2]]. subst e'. rewrite <- E2 in Hm. exists m. auto.
Qed.

Lemma step_inv s o s' out : step s o = Ok (s', out) ->
  (exists rq w ok yard, has_resources (s_alloc s) rq w = Ok (ok, yard)
     /\ s' = mkSys (mkAllocator (a_pools (s_alloc s)) (a_free (s_alloc s)) (a_weights (s_alloc s)) yard (a_all (s_alloc s))) (s_live s)
     /\ (o = OAlloc rq w /\ ok = false /\ out = OutNone \/ o = OEnabled rq w /\ out = OutEnabled ok))
  \/ (exists rq w yard pools al free, o = OAlloc rq w /\ out = OutGrant al
        /\ has_resources (s_alloc s) rq w = Ok (true, yard)
        /\ claim_resources (mkAllocator (a_pools (s_alloc s)) (a_free (s_alloc s)) (a_weights (s_alloc s)) yard (a_all (s_alloc s))) rq w = Ok (pools, al)
        /\ cf_remove (a_free (s_alloc s)) al = Ok free
        /\ s' = mkSys (mkAllocator pools free (a_weights (s_alloc s)) yard (a_all (s_alloc s))) (s_live s ++ [al]))
  \/ (exists k al free pools, o = ORelease k /\ out = OutReleased /\ nth_error (s_live s) (nat_of k) = Some al
        /\ cf_add (a_free (s_alloc s)) al = Ok free /\ release_helper (a_pools (s_alloc s)) al = Ok pools
        /\ s' = mkSys (mkAllocator pools free (a_weights (s_alloc s)) (a_yard (s_alloc s)) (a_all (s_alloc s)))
                      (remove_nth (s_live s) (nat_of k))).
Proof.
  intros Hs. destruct o as [rq w|k|rq w]; cbn [step] in Hs.
  - unfold try_allocate in Hs.
    destruct (has_resources (s_alloc s) rq w) as [[ok yard]| |] eqn:Eh; cbn [bind] in Hs; try discriminate.
    destruct ok; cbn [negb] in Hs.
    + right; left. destruct (claim_resources _ rq w) as [[pools al]| |] eqn:Ec; cbn [bind] in Hs; try discriminate.
      destruct (cf_remove (a_free (s_alloc s)) al) as [free| |] eqn:Ef; cbn [bind] in Hs; try discriminate.
      inversion Hs; subst. exists rq, w, yard, pools, al, free. repeat split; auto.
    + left. inversion Hs; subst. exists rq, w, false, yard. repeat split; auto.
  - right; right. destruct (k <? len (s_live s)); try discriminate.
    destruct (nth_error (s_live s) (nat_of k)) as [al|] eqn:En; try discriminate. unfold release_allocation in Hs.
    destruct (cf_add (a_free (s_alloc s)) al) as [free| |] eqn:Ea; cbn [bind] in Hs; try discriminate.
    destruct (release_helper (a_pools (s_alloc s)) al) as [pools| |] eqn:Er; cbn [bind] in Hs; try discriminate.
    inversion Hs; subst. exists k, al, free, pools. repeat split; auto.
  - left. unfold is_enabled in Hs.
    destruct (has_resources (s_alloc s) rq w) as [[ok yard]| |] eqn:Eh; cbn [bind] in Hs; try discriminate.
    inversion Hs; subst. exists rq, w, ok, yard. cbn [fst snd]. repeat split; auto.
Qed.

Lemma step_grant_inv s rq w s' al : step s (OAlloc rq w) = Ok (s', OutGrant al) ->
  exists yard pools free,
    has_resources (s_alloc s) rq w = Ok (true, yard)
    /\ claim_resources (mkAllocator (a_pools (s_alloc s)) (a_free (s_alloc s)) (a_weights (s_alloc s)) yard (a_all (s_alloc s))) rq w = Ok (pools, al)
    /\ cf_remove (a_free (s_alloc s)) al = Ok free
    /\ s' = mkSys (mkAllocator pools free (a_weights (s_alloc s)) yard (a_all (s_alloc s))) (s_live s ++ [al]).
Proof.
  intros Hs. destruct (step_inv _ _ _ _ Hs) as [(? & ? & ? & ? & _ & _ & [(_ & _ & E)|(E & _)])|[(rq' & w' & yard & pools & al' & free & E1 & E2 & H)|(? & ? & ? & ? & E & _)]];
    try discriminate E.
  inversion E1; inversion E2; subst. eauto 10.
Qed.
