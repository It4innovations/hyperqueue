(** C16: the reference minimum number of groups and the meaning of the group solver's rows;
    C16_objective_orders_by_group_count: under the size bounds, the group solver's objective is strictly
    better for fewer groups - so an optimal answer selects the minimum number of groups. *)
From HQ Require Import Base.Prelude Gen.Consts Alloc.Model Alloc.Spec Alloc.Lemmas Alloc.Claims Alloc.Admission.
Require Import ZifyBool.
Open Scope N_scope.

Lemma fold_min_correct {A} (p : A -> bool) (f : A -> N) (l : list A) :
  match fold_right (fun m acc => if p m then min_opt acc (f m) else acc) None l with
  | Some k => (exists m, In m l /\ p m = true /\ f m = k) /\ (forall m, In m l -> p m = true -> k <= f m)
  | None => forall m, In m l -> p m = false
  end.
Proof.
  induction l as [|x l IH]; simpl.
  - intros m [].
  - destruct (fold_right (fun m acc => if p m then min_opt acc (f m) else acc) None l) as [k|] eqn:E.
    + destruct IH as [(m & Hm & Hp & Hf) Hmin]. destruct (p x) eqn:Ex; simpl.
      * split.
        -- destruct (N.min_spec k (f x)) as [[Hlt Hmn]|[Hle Hmn]]; rewrite Hmn.
           ++ exists m. auto.
           ++ exists x. auto.
        -- intros y [Hy|Hy] Hpy; [subst; lia | specialize (Hmin y Hy Hpy); lia].
      * split; [exists m; auto|]. intros y [Hy|Hy] Hpy; [subst; congruence | auto].
    + destruct (p x) eqn:Ex; simpl.
      * split; [exists x; auto|]. intros y [Hy|Hy] Hpy; [subst; lia | rewrite IH in Hpy; auto; discriminate].
      * intros y [Hy|Hy]; [subst; auto | auto].
Qed.

Lemma in_sublists_nil {A} (l : list A) : In [] (sublists l).
Proof. induction l; simpl; auto. apply in_or_app. right. auto. Qed.

(** C16_min_groups_correct: the reference is the true minimum over all sets of groups:
    it is achieved by some set, and no sufficient set is smaller; [None] iff no set is sufficient. *)
Theorem min_groups_correct per units fr :
  match min_groups per units fr with
  | Some k =>
      (exists m, In m (sublists (full_mask per)) /\ sufficient per units fr m = true /\ len m = k)
      /\ (forall m, In m (sublists (full_mask per)) -> sufficient per units fr m = true -> k <= len m)
  | None => forall m, In m (sublists (full_mask per)) -> sufficient per units fr m = false
  end.
Proof. unfold min_groups. apply (fold_min_correct (sufficient per units fr) len). Qed.

(** the rows of the MILP (groups.rs) say exactly "the selected groups are sufficient" *)
Definition count_fit (per : list (N * N)) (fr : N) (m : mask) : N :=
  mask_sum per m (fun uf => if fr <=? snd uf then 1 else 0).

Lemma mask_sum_fit per fr m :
  mask_sum per m (fun uf => if fr <=? snd uf then fst uf + 1 else fst uf) = mask_sum per m fst + count_fit per fr m.
Proof.
  unfold count_fit. induction m as [|g m IH]; [reflexivity|].
  rewrite !mask_sum_cons. destruct (nth_error per (nat_of g)) as [uf|]; auto.
  rewrite IH. destruct (fr <=? snd uf); lia.
Qed.

Lemma count_fit_exists per fr m :
  (0 <? count_fit per fr m) = existsb (fun gi => match nth_error per (nat_of gi) with Some uf => fr <=? snd uf | None => false end) m.
Proof.
  unfold count_fit. induction m as [|g m IH]; [reflexivity|].
  rewrite mask_sum_cons. simpl existsb. destruct (nth_error per (nat_of g)) as [uf|]; simpl.
  - destruct (fr <=? snd uf); simpl; [|rewrite <- IH; f_equal; lia].
    destruct (N.ltb_spec 0 (1 + mask_sum per m (fun uf0 => if fr <=? snd uf0 then 1 else 0))); auto. lia.
  - auto.
Qed.

Lemma count_fit_no_candidate per fr m : need_second_check per fr = false -> count_fit per fr m = 0.
Proof.
  intros H. unfold count_fit. induction m as [|g m IH]; [reflexivity|].
  rewrite mask_sum_cons. destruct (nth_error per (nat_of g)) as [uf|] eqn:E; auto.
  unfold need_second_check in H.
  assert (fr <=? snd uf = false).
  { destruct (fr <=? snd uf) eqn:E2; auto.
    assert (existsb (fun uf => fr <=? snd uf) per = true) by (apply existsb_exists; exists uf; split; auto; eapply nth_error_In; eauto).
    congruence. }
  rewrite H0. lia.
Qed.

(** C16: the constraint rows group_solver builds hold for a 0/1 assignment iff the selected groups
    can hold the amount (enough whole indices, the fraction from one index) *)
Theorem rows_mean_sufficient per units fr m : mask_feasible per units fr m = sufficient per units fr m.
Proof.
  unfold mask_feasible, sufficient. destruct (N.eqb_spec fr 0) as [Hz|Hz].
  - simpl. rewrite andb_true_r. auto.
  - simpl orb. rewrite mask_sum_fit. rewrite <- count_fit_exists.
    destruct (need_second_check per fr) eqn:En.
    + rewrite andb_true_r.
      destruct (N.ltb_spec 0 units); destruct (N.leb_spec units (mask_sum per m fst));
        destruct (N.leb_spec (units + 1) (mask_sum per m fst + count_fit per fr m));
        destruct (N.leb_spec (units + 1) (mask_sum per m fst));
        destruct (N.ltb_spec 0 (count_fit per fr m)); simpl; auto; lia.
    + rewrite andb_false_r. rewrite (count_fit_no_candidate _ _ _ En).
      destruct (N.leb_spec units (mask_sum per m fst));
        destruct (N.leb_spec (units + 1) (mask_sum per m fst + 0));
        destruct (N.leb_spec (units + 1) (mask_sum per m fst));
        destruct (N.ltb_spec 0 0); simpl; auto; lia.
Qed.

Lemma min_groups_example :
  min_groups [(2, 0); (1, 5000); (3, 0)] 2 2500 = Some 1
  /\ min_groups [(2, 0); (1, 5000); (3, 0)] 3 7500 = Some 2
  /\ min_groups [(2, 0); (1, 5000); (3, 0)] 7 0 = None.
Proof. vm_compute. repeat split; reflexivity. Qed.


Lemma sublists_in {A} (l : list A) m x : In m (sublists l) -> In x m -> In x l.
Proof.
  revert m; induction l as [|y l IH]; simpl; intros m Hm Hx.
  - destruct Hm as [<-|[]]. destruct Hx.
  - apply in_app_or in Hm. destruct Hm as [Hm|Hm].
    + apply in_map_iff in Hm. destruct Hm as [m' [<- Hm']]. destruct Hx as [->|Hx]; auto. right. eapply IH; eauto.
    + right. eapply IH; eauto.
Qed.

Lemma seqN_lt s n x : In x (seqN s n) -> x < s + N.of_nat n.
Proof. revert s; induction n; simpl; intros s H; [contradiction|]. destruct H as [<-|H]; [lia|]. apply IHn in H. lia. Qed.

Lemma sublists_sum_le per coef : forall l m, In m (sublists l) -> mask_sum per m coef <= mask_sum per l coef.
Proof.
  induction l as [|y l IH]; intros m Hm; simpl in Hm.
  - destruct Hm as [<-|[]]. apply N.le_refl.
  - apply in_app_or in Hm. destruct Hm as [Hm|Hm].
    + apply in_map_iff in Hm. destruct Hm as [m' [<- Hm']]. rewrite !mask_sum_cons. specialize (IH _ Hm').
      destruct (nth_error per (nat_of y)); lia.
    + specialize (IH _ Hm). rewrite mask_sum_cons. destruct (nth_error per (nat_of y)); lia.
Qed.

Definition tieN (uf : N * N) : N := 10 * fst uf * FPU.
Definition bonusN (fr : N) (uf : N * N) : N := if fr <=? snd uf then snd uf * ALLOC_FRAC_MUL * 10 * ALLOC_UNIT_DIV else 0.

Definition in_range (per : list (N * N)) (m : mask) : Prop := forall g, In g m -> g < len per.

Lemma in_range_full per m : In m (sublists (full_mask per)) -> in_range per m.
Proof.
  intros Hm g Hg. pose proof (sublists_in _ _ _ Hm Hg) as H. unfold full_mask in H. apply seqN_lt in H. unfold len. lia.
Qed.

Lemma nth_in_range (per : list (N * N)) g : g < len per -> exists uf, nth_error per (nat_of g) = Some uf.
Proof.
  intros H. destruct (nth_error per (nat_of g)) eqn:E; eauto. apply nth_error_None in E. unfold len, nat_of in *. lia.
Qed.

Lemma objective_int per m tie :
  in_range per m ->
  mask_objective tie per 0 m = (- GROUP_COST * Z.of_N (len m) - (if tie then Z.of_N (mask_sum per m tieN) else 0))%Z.
Proof.
  induction m as [|g m IH]; intros Hr.
  - simpl. unfold len; simpl. destruct tie; simpl; lia.
  - assert (Hr' : in_range per m) by (intros x Hx; apply Hr; right; auto).
    destruct (nth_in_range per g) as [uf Huf]; [apply Hr; left; auto|].
    simpl mask_objective. rewrite Huf, mask_sum_cons, Huf. fold (mask_objective tie per 0 m). rewrite (IH Hr').
    unfold var_weight, tieN. rewrite N.eqb_refl. unfold len. simpl length. destruct tie; lia.
Qed.

Lemma objective_frac per m tie fr :
  fr <> 0 -> in_range per m ->
  mask_objective tie per fr m = (- GROUP_COST * Z.of_N (len m) + (if tie then Z.of_N (mask_sum per m (bonusN fr)) else 0))%Z.
Proof.
  intros Hfr. induction m as [|g m IH]; intros Hr.
  - simpl. unfold len; simpl. destruct tie; simpl; lia.
  - assert (Hr' : in_range per m) by (intros x Hx; apply Hr; right; auto).
    destruct (nth_in_range per g) as [uf Huf]; [apply Hr; left; auto|].
    simpl mask_objective. rewrite Huf, mask_sum_cons, Huf. fold (mask_objective tie per fr m). rewrite (IH Hr').
    unfold var_weight, bonusN. destruct (N.eqb_spec fr 0); [congruence|].
    unfold len. simpl length. unfold GROUP_COST_FRAC, GROUP_COST_PLAIN, GROUP_COST.
    change ALLOC_GROUP_WEIGHT_FRAC with ALLOC_GROUP_WEIGHT. change ALLOC_GROUP_WEIGHT_PLAIN with ALLOC_GROUP_WEIGHT.
    destruct (fr <=? snd uf); destruct tie; lia.
Qed.

(** the size bounds of DESIGN C16: fewer than 32*1024 whole units in total, fewer than 64 groups *)
Definition bounded (per : list (N * N)) : Prop :=
  sumN (map fst per) < ALLOC_UNIT_DIV * ALLOC_GROUP_WEIGHT /\ len per * ALLOC_FRAC_MUL < ALLOC_GROUP_WEIGHT
  /\ Forall (fun uf => snd uf < FPU) per.

Lemma bonus_total per fr : Forall (fun uf => snd uf < FPU) per ->
  sumN (map (bonusN fr) per) <= len per * (FPU * ALLOC_FRAC_MUL * 10 * ALLOC_UNIT_DIV).
Proof.
  induction 1 as [|uf per Hx _ IH]; cbn [map]; [unfold len; simpl; rewrite sumN_nil; lia|].
  rewrite sumN_cons. unfold len in *. simpl length. unfold bonusN at 1. unfold ALLOC_FRAC_MUL, ALLOC_UNIT_DIV, FPU, FRACTIONS_PER_UNIT in *.
  destruct (fr <=? snd uf); lia.
Qed.

(** C16_objective_orders_by_group_count *)
Theorem objective_orders per fr tie m m' :
  bounded per -> In m (sublists (full_mask per)) -> In m' (sublists (full_mask per)) ->
  len m < len m' -> (mask_objective tie per fr m' < mask_objective tie per fr m)%Z.
Proof.
  intros (B1 & B2 & B3) Hm Hm' Hlt.
  pose proof (in_range_full _ _ Hm) as R. pose proof (in_range_full _ _ Hm') as R'.
  destruct (N.eq_dec fr 0) as [->|Hfr].
  - rewrite !objective_int by auto. destruct tie; [|unfold GROUP_COST, OBJ_SCALE, ALLOC_GROUP_WEIGHT, ALLOC_UNIT_DIV, FPU, FRACTIONS_PER_UNIT; lia].
    pose proof (sublists_sum_le per tieN _ _ Hm) as S. rewrite mask_sum_full in S.
    assert (ST : sumN (map tieN per) = 10 * FPU * sumN (map fst per)).
    { clear. induction per as [|uf per IH]; cbn [map]; rewrite ?sumN_nil, ?sumN_cons; [lia|]. rewrite IH. unfold tieN. lia. }
    rewrite ST in S. unfold GROUP_COST, OBJ_SCALE, ALLOC_GROUP_WEIGHT, ALLOC_UNIT_DIV, FPU, FRACTIONS_PER_UNIT in *. lia.
  - rewrite !objective_frac by auto. destruct tie; [|unfold GROUP_COST, OBJ_SCALE, ALLOC_GROUP_WEIGHT, ALLOC_UNIT_DIV, FPU, FRACTIONS_PER_UNIT; lia].
    pose proof (sublists_sum_le per (bonusN fr) _ _ Hm') as S. rewrite mask_sum_full in S.
    pose proof (bonus_total per fr B3) as BT.
    unfold GROUP_COST, OBJ_SCALE, ALLOC_GROUP_WEIGHT, ALLOC_UNIT_DIV, ALLOC_FRAC_MUL, FPU, FRACTIONS_PER_UNIT in *. lia.
Qed.

(** hence an optimal feasible selection of groups has the minimum number of groups *)
Theorem optimal_is_minimal per units fr tie m :
  bounded per -> In m (sublists (full_mask per)) -> mask_feasible per units fr m = true ->
  (forall m', In m' (sublists (full_mask per)) -> mask_feasible per units fr m' = true ->
              (mask_objective tie per fr m' <= mask_objective tie per fr m)%Z) ->
  min_groups per units fr = Some (len m).
Proof.
  intros HB Hm Hf Hopt. pose proof (min_groups_correct per units fr) as MC.
  destruct (min_groups per units fr) as [k|].
  - destruct MC as [(m0 & Hm0 & Hs0 & Hl0) Hmin]. f_equal.
    rewrite rows_mean_sufficient in Hf. pose proof (Hmin m Hm Hf) as Hge.
    destruct (N.eq_dec k (len m)); auto. exfalso.
    assert (Hlt : len m0 < len m) by lia.
    pose proof (objective_orders per fr tie m0 m HB Hm0 Hm Hlt) as Ho.
    rewrite <- rows_mean_sufficient in Hs0. specialize (Hopt m0 Hm0 Hs0). lia.
  - rewrite rows_mean_sufficient in Hf. rewrite (MC m Hm) in Hf. discriminate.
Qed.

(** strict admission, at the level of one entry without coupling weights: if the objective (without
    tie-breaking terms) of a selection feasible NOW is within the slack of the objective of a selection that is
    optimal for the EMPTY worker, then the amount fits NOW into the minimum number of groups of the empty worker *)
Theorem strict_admission_sound per_now per_all units fr m_now m_all :
  In m_now (sublists (full_mask per_now)) -> In m_all (sublists (full_mask per_all)) ->
  mask_feasible per_now units fr m_now = true ->
  min_groups per_all units fr = Some (len m_all) ->
  (mask_objective false per_all fr m_all - SLACK <= mask_objective false per_now fr m_now)%Z ->
  exists k, min_groups per_now units fr = Some k /\ k <= len m_all.
Proof.
  intros Hn Ha Hf Hmin Hobj.
  pose proof (in_range_full _ _ Hn) as Rn. pose proof (in_range_full _ _ Ha) as Ra.
  assert (Hle : len m_now <= len m_all).
  { destruct (N.eq_dec fr 0) as [->|Hfr].
    - rewrite !objective_int in Hobj by auto. unfold SLACK, GROUP_COST, OBJ_SCALE, ALLOC_GROUP_WEIGHT, ALLOC_SLACK_TENTHS, ALLOC_UNIT_DIV, FPU, FRACTIONS_PER_UNIT in Hobj. lia.
    - rewrite !objective_frac in Hobj by auto. unfold SLACK, GROUP_COST, OBJ_SCALE, ALLOC_GROUP_WEIGHT, ALLOC_SLACK_TENTHS, ALLOC_UNIT_DIV, FPU, FRACTIONS_PER_UNIT in Hobj. lia. }
  pose proof (min_groups_correct per_now units fr) as MC.
  rewrite rows_mean_sufficient in Hf.
  destruct (min_groups per_now units fr) as [k|].
  - destruct MC as [_ Hm]. exists k. split; auto. specialize (Hm m_now Hn Hf). lia.
  - rewrite (MC m_now Hn) in Hf. discriminate.
Qed.


Lemma increasing_in_sublists m : forall lo n,
  strictly_increasing_below m lo (lo + N.of_nat n) = true -> In m (sublists (seqN lo n)).
Proof.
  induction m as [|g m IH]; intros lo n H.
  - apply in_sublists_nil.
  - simpl in H. apply andb_true_iff in H. destruct H as [H H3]. apply andb_true_iff in H. destruct H as [H1 H2].
    revert lo H1 H2 H3. induction n as [|n IHn]; intros lo H1 H2 H3; [lia|].
    simpl. apply in_or_app. destruct (N.eq_dec g lo) as [->|Hne].
    + left. apply in_map. apply IH. replace (lo + 1 + N.of_nat n) with (lo + N.of_nat (S n)) by lia. auto.
    + right. apply IHn; try lia. replace (lo + 1 + N.of_nat n) with (lo + N.of_nat (S n)) by lia. auto.
Qed.

Lemma answer_in_sublists per m : strictly_increasing_below m 0 (len per) = true -> In m (sublists (full_mask per)).
Proof. intros H. unfold full_mask. apply (increasing_in_sublists m 0 (length per)). unfold len in H. rewrite N.add_0_l. auto. Qed.

Lemma group_solver_single free e a pol tie ms o s :
  e_req e = Req pol a -> get_at free (e_res e) = Ok s ->
  group_solver free [e] [] tie (Some ms) = Ok (Some (ms, o)) ->
  exists m, ms = [m] /\ In m (sublists (full_mask (amount_max_per_group s)))
            /\ mask_feasible (amount_max_per_group s) (fst (split a)) (snd (split a)) m = true
            /\ o = mask_objective tie (amount_max_per_group s) (snd (split a)) m.
Proof.
  intros Hreq Hs H. unfold group_solver in H. simpl in H. rewrite Hreq, Hs in H. cbn [bind] in H. simpl in H.
  change (fst (split a)) with (a / FPU). change (snd (split a)) with (a mod FPU).
  destruct ms as [|m [|m2 ms]]; simpl in H; try discriminate; try (rewrite andb_false_r in H; discriminate).
  rewrite andb_true_r in H.
  destruct (strictly_increasing_below m 0 (len (amount_max_per_group s))) eqn:E1; simpl in H; try discriminate.
  destruct (mask_feasible (amount_max_per_group s) (a / FPU) (a mod FPU) m) eqn:E2; simpl in H; try discriminate.
  inversion H; subst. exists m. split; [auto|]. split; [apply answer_in_sublists; auto|]. split; [auto|]. lia.
Qed.

Lemma group_solver_same free entries ws tie ms ms' o :
  group_solver free entries ws tie (Some ms) = Ok (Some (ms', o)) -> ms' = ms.
Proof. intros H. destruct (group_solver_some _ _ _ _ _ _ _ H) as [E _]. congruence. Qed.

(** C16_strict_sound at the level of the admission function: if has_resources_for_request admits a request with
    ONE strict entry (first call, no coupling weights) and the solver's answer for the empty worker is optimal
    (it selects [min_groups] groups - checked per answer by the monitor), then the amount fits NOW into at most the
    minimum number of groups of the empty worker. *)
Theorem strict_admitted_sound a e pol amt w yard p s_now s_all :
  (pol = ForceCompact \/ pol = ForceTight) -> e_req e = Req pol amt ->
  a_weights a = [] -> a_yard a = [] ->
  get_at (a_pools a) (e_res e) = Ok p -> is_groups p = true ->
  get_at (a_free a) (e_res e) = Ok s_now -> get_at (a_all a) (e_res e) = Ok s_all ->
  has_resources a [e] w = Ok (true, yard) ->
  (forall m_all, w_yard w = Some [m_all] ->
                 min_groups (amount_max_per_group s_all) (fst (split amt)) (snd (split amt)) = Some (len m_all)) ->
  exists k m_all, w_yard w = Some [m_all]
    /\ min_groups (amount_max_per_group s_now) (fst (split amt)) (snd (split amt)) = Some k /\ k <= len m_all.
Proof.
  intros Hpol Hreq Hws Hy Hp Hg Hsn Hsa Hh Hopt.
  unfold has_resources in Hh. simpl hr_entries in Hh.
  pose proof Hp as Hp'. apply get_at_ok in Hp'. destruct Hp' as [Hlt _].
  destruct (N.leb_spec (len (a_pools a)) (e_res e)); [lia|].
  rewrite Hp, Hsn in Hh. cbn [bind] in Hh.
  destruct (amount_max_alloc s_now) as [mx| |]; cbn [bind] in Hh; try discriminate.
  rewrite Hreq in Hh. rewrite Hg in Hh.
  assert (Hrel : is_relevant_for_coupling (Req pol amt) = true) by (destruct Hpol; subst; auto).
  rewrite Hrel in Hh. simpl andb in Hh. cbn iota in Hh. simpl app in Hh.
  destruct (amt <=? mx); cbn [bind negb] in Hh; [|inversion Hh].
  assert (Hf : forallb (fun e0 => negb (is_forced (e_req e0))) [e] = false).
  { simpl. rewrite Hreq. destruct Hpol; subst; auto. }
  rewrite Hf in Hh. rewrite Hws, Hy in Hh.
  destruct (w_adm w) as [ms|] eqn:Ea.
  2:{ unfold group_solver in Hh. simpl in Hh. rewrite Hreq, Hsn in Hh. cbn [bind] in Hh.
      destruct (split amt); cbn [bind] in Hh. simpl in Hh. destruct (_ && _); simpl in Hh; inversion Hh. }
  destruct (group_solver (a_free a) [e] [] false (Some ms)) as [[[ms' o]|]| |] eqn:Eg; cbn [bind] in Hh; try discriminate.
  assert (ms' = ms) by (eapply group_solver_same; eauto).
  subst ms'. destruct (group_solver_single _ _ _ _ _ _ _ _ Hreq Hsn Eg) as (m_now & -> & Hin_now & Hfeas & ->).
  simpl yard_lookup in Hh.
  destruct (w_yard w) as [ys|] eqn:Ey.
  2:{ unfold group_solver in Hh. simpl in Hh. rewrite Hreq, Hsa in Hh. cbn [bind] in Hh.
      destruct (split amt); cbn [bind] in Hh. simpl in Hh. destruct (_ && _); simpl in Hh; inversion Hh. }
  destruct (group_solver (a_all a) [e] [] false (Some ys)) as [[[ys' oy]|]| |] eqn:Egy; cbn [bind] in Hh; try discriminate.
  assert (ys' = ys) by (eapply group_solver_same; eauto).
  subst ys'. destruct (group_solver_single _ _ _ _ _ _ _ _ Hreq Hsa Egy) as (m_all & -> & Hin_all & Hfeas_all & ->).
  inversion Hh as [[Hle Hyard]]. apply Z.leb_le in Hle.
  destruct (strict_admission_sound (amount_max_per_group s_now) (amount_max_per_group s_all) _ _ m_now m_all Hin_now Hin_all Hfeas (Hopt m_all eq_refl)) as (k & Hk & Hkl); [exact Hle|].
  exists k, m_all. auto.
Qed.
