(** C16 - strict policies in ALL reachable states, cached yardsticks included: when every answer of the solver for
    the EMPTY worker selects the minimum number of groups per entry, every cached yardstick is the reference one,
    and has_resources_for_request admits a request with a strict entry exactly when it fits and every coupled entry
    is at its empty-worker minimum - on a cache miss and on a cache hit.  So the answer is a function of the pools:
    is_enabled and try_allocate agree for strict requests as well. *)
From Coq Require Import Permutation.
From HQ Require Import Base.Prelude Gen.Consts Alloc.Model Alloc.Spec Alloc.Lemmas Alloc.Group Alloc.Pool Alloc.Inv Alloc.Claims Alloc.Mirror Alloc.Theorems Alloc.MirrorSystem Alloc.Admission Alloc.AllFree Alloc.Objective Alloc.Examples
  Alloc.PolicyAdmission Alloc.PolicyStrict Alloc.PolicyStrictReach.
Require Import ZifyBool.
Open Scope N_scope.

Definition min_or0 (o : option N) : N := match o with Some k => k | None => 0 end.
Definition mins_total (rows : list (list (N * N) * N * N)) : N := sumN (map min_or0 (row_mins rows)).

Lemma minimal_total rows : forall ms, minimal_answer rows ms -> total_groups ms = mins_total rows.
Proof.
  induction rows as [|[[per u] f] rows IH]; intros [|m ms] H; cbn [minimal_answer] in H; try contradiction; [reflexivity|].
  destruct H as [H1 H2]. unfold total_groups, mins_total in *. cbn [map row_mins]. rewrite !sumN_cons, H1, (IH _ H2). reflexivity.
Qed.

Lemma counts_iff_at_minimum_ref rows_now : forall rows_all ms_now,
  rows_dominated rows_now rows_all -> minimal_answer rows_now ms_now ->
  (total_groups ms_now <=? mins_total rows_all) = list_eqb opt_eqb (row_mins rows_now) (row_mins rows_all).
Proof.
  intros rows_all ms_now Hd Hn. destruct (counts_iff_minima _ _ _ Hd Hn) as (ks & Hk & Heq & _). rewrite <- Heq.
  unfold mins_total. rewrite Hk, map_map. cbn [min_or0]. rewrite map_id. reflexivity.
Qed.

Definition yard_value (pools0 : list pool) (rq : request) : Z :=
  (- GROUP_COST * Z.of_N (mins_total (map (ref_row pools0) (coupled_entries pools0 rq))) + 0 - SLACK)%Z.

Definition yard_ok (pools0 : list pool) (yard : list (request * Z)) : Prop :=
  forall rq c, yard_lookup yard rq = Some c -> c = yard_value pools0 rq.

(** the answers for the empty worker are minimal per entry (state independent) *)
Definition yard_witness_ok (pools0 : list pool) (rq : request) (w : witness) : Prop :=
  forall ms, w_yard w = Some ms -> minimal_answer (map (ref_row pools0) (coupled_entries pools0 rq)) ms.
Definition yard_op_ok (pools0 : list pool) (o : op) : Prop :=
  match o with OAlloc rq w | OEnabled rq w => yard_witness_ok pools0 rq w | ORelease _ => True end.

Lemma policy_eqb_eq p q : policy_eqb p q = true -> p = q.
Proof. destruct p, q; simpl; intros H; try discriminate; reflexivity. Qed.

Lemma request_eqb_eq a : forall b, request_eqb a b = true -> a = b.
Proof.
  induction a as [|x a IH]; intros [|y b] H; cbn [request_eqb] in H; try discriminate; [reflexivity|].
  apply andb_true_iff in H. destruct H as [H1 H2]. f_equal; auto.
  unfold entry_eqb in H1. apply andb_true_iff in H1. destruct H1 as [Hr Hq]. apply N.eqb_eq in Hr.
  destruct x as [rx qx], y as [ry qy]. cbn [e_res e_req] in *. subst. f_equal.
  destruct qx as [p a1|], qy as [q a2|]; cbn [areq_eqb] in Hq; try discriminate; auto.
  apply andb_true_iff in Hq. destruct Hq as [Hp Ha]. apply policy_eqb_eq in Hp. apply N.eqb_eq in Ha. subst. reflexivity.
Qed.

(** the kinds of the pools never change: the same entries are coupled *)
Lemma is_coupled_same pools0 pools free Hf Tf e :
  PoolsInv pools0 pools free Hf Tf -> is_coupled pools e = is_coupled pools0 e.
Proof.
  intros HP. unfold is_coupled.
  destruct (nth_error pools (nat_of (e_res e))) as [p|] eqn:Ep.
  - destruct (PoolsInv_at _ _ _ _ _ _ _ HP Ep) as (p0 & c & E0 & _ & (K & _)). rewrite E0.
    destruct p0, p; try discriminate K; reflexivity.
  - assert (E0 : nth_error pools0 (nat_of (e_res e)) = None).
    { apply nth_error_None. apply nth_error_None in Ep. destruct HP as [[L _] _]. lia. }
    rewrite E0. reflexivity.
Qed.

Lemma coupled_entries_same pools0 pools free Hf Tf rq :
  PoolsInv pools0 pools free Hf Tf -> coupled_entries pools rq = coupled_entries pools0 rq.
Proof.
  intros HP. unfold coupled_entries. apply filter_ext. intros e. eapply is_coupled_same; eauto.
Qed.

Lemma run_snoc_inv ops : forall s0 o s, run s0 (ops ++ [o]) = Ok s ->
  exists s1 out, run s0 ops = Ok s1 /\ step s1 o = Ok (s, out).
Proof.
  induction ops as [|x ops IH]; intros s0 o s Hr; cbn [app run] in Hr.
  - destruct (step s0 o) as [[s1 out]| |] eqn:Es; cbn [bind fst run] in Hr; try discriminate. inversion Hr; subst.
    exists s0, out. split; [reflexivity|exact Es].
  - destruct (step s0 x) as [[s1 out]| |] eqn:Es; cbn [bind fst] in Hr; try discriminate.
    destruct (IH _ _ _ Hr) as (s2 & out2 & A & B). exists s2, out2. split; auto. cbn [run]. rewrite Es. exact A.
Qed.

Lemma init_yard_nil d s0 : init d = Ok s0 -> a_yard (s_alloc s0) = [].
Proof. intros Hi. destruct (init_inv _ _ Hi) as (pools & ws & -> & _). reflexivity. Qed.

Section Reach.
  Variables (d : desc) (s0 : sys).
  Hypothesis Hi : init d = Ok s0.
  Hypothesis Hnc : d_coupling d = [].
  Let pools0 := a_pools (s_alloc s0).

  Lemma has_resources_strict ops s rq w ok yard :
    Forall valid_op ops -> run s0 ops = Ok s ->
    yard_ok pools0 (a_yard (s_alloc s)) -> yard_witness_ok pools0 rq w ->
    has_resources (s_alloc s) rq w = Ok (ok, yard) ->
    yard_ok pools0 yard
    /\ (existsb (fun e => is_forced (e_req e)) (coupled_entries (a_pools (s_alloc s)) rq) = true ->
        (forall ms, w_adm w = Some ms ->
                    minimal_answer (map (ref_row (a_pools (s_alloc s))) (coupled_entries (a_pools (s_alloc s)) rq)) ms) ->
        ok = request_fits (a_pools (s_alloc s)) rq
             && forallb (at_min pools0 (a_pools (s_alloc s))) (coupled_entries (a_pools (s_alloc s)) rq)).
  Proof.
    intros Hv Hr Hyard Hwy Hh.
    destruct (request_fits (a_pools (s_alloc s)) rq) eqn:Hfit.
    2:{ rewrite (admission_refuses_unfit d s0 ops s Hi Hv Hr rq w Hfit) in Hh. inversion Hh; subst. split; auto. }
    cbn [andb].
    pose proof (reachable_full _ _ _ _ Hi Hv Hr) as HF. destruct HF as [HI _].
    pose proof (coupled_entries_same _ _ _ _ _ rq HI) as Hsame. fold pools0 in Hsame.
    destruct (strict_setting d s0 ops s rq Hi Hv Hr Hnc Hfit) as (cp0 & -> & Hhr & Hws0 & Hrn & Hra & Hfull & Hdom & Hcpl & Hcpl0).
    fold pools0 in Hra, Hdom, Hcpl0. set (pools := a_pools (s_alloc s)) in *. set (cp := coupled_entries pools rq) in *.
    destruct (forallb (fun e => negb (is_forced (e_req e))) cp) eqn:Hnf.
    { (* the solver is not consulted *)
      unfold has_resources in Hh. fold pools in Hh. rewrite Hhr in Hh. cbn [bind negb] in Hh. rewrite Hnf in Hh. inversion Hh; subst.
      split; auto. intros Hforced _. exfalso.
      apply existsb_exists in Hforced. destruct Hforced as (e & He & Hfe).
      rewrite forallb_forall in Hnf. specialize (Hnf e He). rewrite Hfe in Hnf. discriminate. }
    destruct (strict_admission_shape _ _ _ _ _ _ Hws0 Hhr Hnf Hh) as (rows_now & Hrows & Hcase).
    fold pools in Hrows. rewrite Hrn in Hrows. inversion Hrows; subst rows_now. clear Hrows.
    destruct Hcase as [(_ & Hinf & _ & _)|(ms_now & Ha & Hfn & Hcase)]; [congruence|].
    assert (Hfin : forall k, k = mins_total (map (ref_row pools0) cp) -> minimal_answer (map (ref_row pools) cp) ms_now ->
                     (total_groups ms_now <=? k) = forallb (at_min pools0 pools) cp).
    { intros k -> Hmin. rewrite (counts_iff_at_minimum_ref _ _ _ Hdom Hmin). apply row_mins_at_min; auto. }
    destruct (yard_lookup (a_yard (s_alloc s)) rq) as [c|] eqn:Ey.
    - destruct Hcase as [-> ->]. split; auto. intros _ Hmin.
      rewrite (Hyard _ _ Ey). unfold yard_value. rewrite <- Hsame. fold cp. rewrite strict_compare.
      apply Hfin; auto.
    - destruct Hcase as (ms_all & rows_all & Hy & Hrows_all & Hfa & -> & ->).
      rewrite Hra in Hrows_all. inversion Hrows_all; subst rows_all. clear Hrows_all.
      pose proof (Hwy _ Hy) as Hmin_all. rewrite <- Hsame in Hmin_all. fold cp in Hmin_all.
      split.
      + intros rq' c Hl. cbn [yard_lookup] in Hl. destruct (request_eqb rq rq') eqn:Eq.
        * apply request_eqb_eq in Eq. subst rq'. inversion Hl; subst c. unfold yard_value. rewrite <- Hsame. fold cp.
          rewrite (minimal_total _ _ Hmin_all). reflexivity.
        * apply Hyard; auto.
      + intros _ Hmin. apply Hfin; auto. apply minimal_total; auto.
  Qed.

  (** every cached yardstick of a reachable state is the reference one *)
  Lemma yard_ok_reachable ops : forall s,
    Forall valid_op ops -> Forall (yard_op_ok pools0) ops -> run s0 ops = Ok s -> yard_ok pools0 (a_yard (s_alloc s)).
  Proof.
    induction ops as [|o ops IH] using rev_ind; intros s Hv Hy Hr.
    - cbn [run] in Hr. inversion Hr; subst s.
      intros rq c Hl. rewrite (init_yard_nil _ _ Hi) in Hl. discriminate Hl.
    - apply Forall_app in Hv. destruct Hv as [Hv1 Hv2]. apply Forall_app in Hy. destruct Hy as [Hy1 Hy2].
      inversion Hy2 as [|? ? Hyo _]; subst.
      destruct (run_snoc_inv _ _ _ _ Hr) as (s1 & out & Hr1 & Hs).
      pose proof (IH s1 Hv1 Hy1 Hr1) as Hy1'.
      destruct (step_inv _ _ _ _ Hs) as [(rq & w & ok & yard & Eh & -> & Ho)|[(rq & w & yard & pools & al & free & -> & _ & Eh & _ & _ & ->)|(? & ? & ? & ? & _ & _ & _ & _ & _ & ->)]];
        cbn [s_alloc a_yard].
      + assert (Hyw : yard_witness_ok pools0 rq w) by (destruct Ho as [(-> & _)|(-> & _)]; exact Hyo).
        apply (has_resources_strict ops s1 rq w ok yard Hv1 Hr1 Hy1' Hyw Eh).
      + apply (has_resources_strict ops s1 rq w true yard Hv1 Hr1 Hy1' Hyo Eh).
      + exact Hy1'.
  Qed.
End Reach.

(** C16, strict policies, every reachable state (cache hits included).  Worker without coupling weights; every
    answer of the solver for the EMPTY worker - in the history and now - and the answer for the current free
    resources select the minimum number of groups per coupled entry (what the monitor solver-suboptimal checks).
    Then has_resources_for_request - hence is_enabled, and try_allocate's decision to grant - is true EXACTLY when
    the pools contain enough for every entry and every coupled entry can be served now with the minimum number
    of groups of the empty worker (the reference of the monitors strict-refused-at-minimum / admission-disagrees):
    the answer depends on the pools only, not on the cache and not on the witnesses. *)
Theorem C16_strict_admission : forall d s0 ops s rq w ok yard,
  init d = Ok s0 -> Forall valid_op ops -> run s0 ops = Ok s ->
  d_coupling d = [] ->
  Forall (yard_op_ok (a_pools (s_alloc s0))) ops -> yard_witness_ok (a_pools (s_alloc s0)) rq w ->
  (forall ms, w_adm w = Some ms ->
              minimal_answer (map (ref_row (a_pools (s_alloc s))) (coupled_entries (a_pools (s_alloc s)) rq)) ms) ->
  existsb (fun e => is_forced (e_req e)) (coupled_entries (a_pools (s_alloc s)) rq) = true ->
  has_resources (s_alloc s) rq w = Ok (ok, yard) ->
  ok = request_fits (a_pools (s_alloc s)) rq
       && forallb (at_min (a_pools (s_alloc s0)) (a_pools (s_alloc s))) (coupled_entries (a_pools (s_alloc s)) rq).
Proof.
  intros d s0 ops s rq w ok yard Hi Hv Hr Hnc Hyops Hyw Hmin Hforced Hh.
  pose proof (yard_ok_reachable d s0 Hi Hnc ops s Hv Hyops Hr) as Hyard.
  destruct (has_resources_strict d s0 Hi Hnc ops s rq w ok yard Hv Hr Hyard Hyw Hh) as [_ H]. auto.
Qed.

(** the same for the two entry points *)
Corollary C16_strict_enabled_and_allocate : forall d s0 ops s rq w,
  init d = Ok s0 -> Forall valid_op ops -> run s0 ops = Ok s ->
  d_coupling d = [] ->
  Forall (yard_op_ok (a_pools (s_alloc s0))) ops -> yard_witness_ok (a_pools (s_alloc s0)) rq w ->
  (forall ms, w_adm w = Some ms ->
              minimal_answer (map (ref_row (a_pools (s_alloc s))) (coupled_entries (a_pools (s_alloc s)) rq)) ms) ->
  existsb (fun e => is_forced (e_req e)) (coupled_entries (a_pools (s_alloc s)) rq) = true ->
  let ref := request_fits (a_pools (s_alloc s)) rq
             && forallb (at_min (a_pools (s_alloc s0)) (a_pools (s_alloc s))) (coupled_entries (a_pools (s_alloc s)) rq) in
  (forall s' b, step s (OEnabled rq w) = Ok (s', OutEnabled b) -> b = ref)
  /\ (forall s' o, step s (OAlloc rq w) = Ok (s', o) -> if ref then exists al, o = OutGrant al else o = OutNone).
Proof.
  intros d s0 ops s rq w Hi Hv Hr Hnc Hyops Hyw Hmin Hforced ref. split.
  - intros s' b Hs. cbn [step] in Hs. unfold is_enabled in Hs.
    destruct (has_resources (s_alloc s) rq w) as [[ok yard]| |] eqn:Eh; cbn [bind fst snd] in Hs; try discriminate.
    inversion Hs; subst. eapply C16_strict_admission; eauto.
  - intros s' o Hs. cbn [step] in Hs. unfold try_allocate in Hs.
    destruct (has_resources (s_alloc s) rq w) as [[ok yard]| |] eqn:Eh; cbn [bind] in Hs; try discriminate.
    assert (Hok : ok = ref) by (eapply C16_strict_admission; eauto). rewrite <- Hok.
    destruct ok; cbn [negb bind] in Hs.
    + destruct (claim_resources _ rq w) as [[pools al]| |]; cbn [bind] in Hs; try discriminate.
      destruct (cf_remove (a_free (s_alloc s)) al); cbn [bind] in Hs; try discriminate. inversion Hs; subst. eauto.
    + inversion Hs; subst. reflexivity.
Qed.

(** non-vacuity: the state of PolicyStrictReach.strict_admission_example reached through an is_enabled that
    fills the cache: `tight! 6` is then refused on a cache HIT, and the history satisfies the hypotheses *)
Example strict_admission_cached_example :
  let rq := [mkEntry 0 (Req ForceTight 60000)] in
  let w := mkWitness None (Some [[0; 1]]) (Some [[1]]) [] in
  let ops := [OAlloc [mkEntry 0 (Req Scatter 20000)] no_wit; OEnabled rq w] in
  exists s0 s,
    init ex_strict_desc = Ok s0 /\ run s0 ops = Ok s
    /\ Forall (yard_op_ok (a_pools (s_alloc s0))) ops
    /\ yard_lookup (a_yard (s_alloc s)) rq = Some (yard_value (a_pools (s_alloc s0)) rq)
    /\ has_resources (s_alloc s) rq w = Ok (false, a_yard (s_alloc s))
    /\ forallb (at_min (a_pools (s_alloc s0)) (a_pools (s_alloc s))) (coupled_entries (a_pools (s_alloc s)) rq) = false.
Proof.
  cbv zeta. eexists. eexists.
  split; [vm_compute; reflexivity|]. split; [vm_compute; reflexivity|].
  split.
  - constructor; [|constructor; [|constructor]].
    + intros ms Hms. discriminate Hms.
    + intros ms Hms. inversion Hms; subst. vm_compute. auto.
  - repeat split; vm_compute; reflexivity.
Qed.

Print Assumptions C16_strict_admission.
Print Assumptions C16_strict_enabled_and_allocate.
