(** Invariant of the allocator + live allocations, preserved by every accepted step. *)
From Coq Require Import Permutation.
From HQ Require Import Base.Prelude Gen.Consts Alloc.Model Alloc.Spec Alloc.Lemmas Alloc.Group Alloc.Pool.
Require Import ZifyBool.
Open Scope N_scope.

Lemma list_eqb_eq {A} (eqb : A -> A -> bool) (Heq : forall x y, eqb x y = true -> x = y) a b :
  list_eqb eqb a b = true -> a = b.
Proof.
  revert b; induction a as [|x a IH]; intros [|y b]; simpl; try discriminate; auto.
  intros H. apply andb_true_iff in H. destruct H as [H1 H2]. f_equal; auto.
Qed.

Lemma group_eqb_eq a b : group_eqb a b = true -> a = b.
Proof.
  unfold group_eqb. intros H. apply andb_true_iff in H. destruct H as [H1 H2].
  apply list_eqb_eq in H1; [|intros x y E; apply N.eqb_eq; auto].
  apply list_eqb_eq in H2.
  - destruct a, b; simpl in *; congruence.
  - intros [x1 x2] [y1 y2] E. unfold pair_eqb in E. simpl in E. apply andb_true_iff in E. destruct E as [E1 E2].
    apply N.eqb_eq in E1, E2. congruence.
Qed.

Definition same_kind (p0 p : pool) : bool :=
  match p0, p with
  | PEmpty, PEmpty | PIndices _ _, PIndices _ _ | PGroups _ _, PGroups _ _ | PSum _ _, PSum _ _ => true
  | _, _ => false
  end.

Lemma claim_ok_inv p p' rid rq ra :
  claim_ok p p' rid rq ra = true ->
  ra_res ra = rid /\ ra_amount ra = req_amount rq (pool_full_size p)
  /\ same_kind p p' = true /\ pool_full_size p' = pool_full_size p
  /\ match p, p' with
     | PSum _ free, PSum _ free' => ra_amount ra <= free /\ free' = free - ra_amount ra /\ ra_indices ra = []
     | PEmpty, _ => False
     | _, _ => shape_ok (ra_indices ra) = true /\ ra_total ra = ra_amount ra
               /\ take_all (pool_groups p) (ra_indices ra) = Some (pool_groups p')
     end.
Proof.
  unfold claim_ok. rewrite !andb_true_iff. intros [[H1 H2] H3].
  apply N.eqb_eq in H1, H2. split; auto. split; auto.
  destruct p, p'; try discriminate H3.
  - rewrite !andb_true_iff in H3. destruct H3 as [[[Ha Hb] Hc] Hd].
    apply N.eqb_eq in Ha, Hc. simpl in *. subst. repeat split; auto.
    destruct (take_all [g] (ra_indices ra)) eqn:E; [|discriminate Hd].
    apply list_eqb_eq in Hd; [|apply group_eqb_eq]. subst. auto.
  - rewrite !andb_true_iff in H3. destruct H3 as [[[Ha Hb] Hc] Hd].
    apply N.eqb_eq in Ha, Hc. simpl in *. subst. repeat split; auto.
    destruct (take_all gs (ra_indices ra)) eqn:E; [|discriminate Hd].
    apply list_eqb_eq in Hd; [|apply group_eqb_eq]. subst. auto.
  - rewrite !andb_true_iff in H3. destruct H3 as [[[Ha Hb] Hc] Hd].
    apply N.eqb_eq in Ha, Hc. apply N.leb_le in Hb. simpl. subst. repeat split; auto.
    destruct (ra_indices ra); [auto|discriminate].
Qed.

Definition flat_al (al : allocation) (r : N) : list aidx :=
  flat_map (fun ra => if ra_res ra =? r then ra_indices ra else []) al.
Definition flat_live (live : list allocation) (r : N) : list aidx := flat_map (fun al => flat_al al r) live.

Lemma flat_map_app' {A B} (f : A -> list B) a b : flat_map f (a ++ b) = flat_map f a ++ flat_map f b.
Proof. induction a; simpl; auto. rewrite IHa, app_assoc. auto. Qed.

Lemma live_held_flat live r g i : live_held live r g i = hsum (flat_live live r) g i.
Proof.
  unfold live_held, flat_live. induction live as [|al live IH]; cbn [map flat_map]; [reflexivity|].
  rewrite sumN_cons, hsum_app, IH. f_equal.
  unfold alloc_held, flat_al. induction al as [|ra al IHa]; cbn [map flat_map]; [reflexivity|].
  rewrite sumN_cons, hsum_app, IHa. f_equal.
  destruct (ra_res ra =? r); reflexivity.
Qed.

Lemma live_sum_app live al r : live_sum_amount (live ++ [al]) r = live_sum_amount live r + alloc_sum_amount al r.
Proof. unfold live_sum_amount. rewrite map_app, sumN_app. cbn [map]. rewrite sumN_cons, sumN_nil. lia. Qed.

Lemma compat_hsum l g : compat (hsum l g) (hfany l g).
Proof.
  induction l as [|ix l IH]; intros i.
  - rewrite hsum_nil. simpl. split; [discriminate | auto].
  - destruct (IH i) as [C1 C2]. rewrite hsum_cons, hfany_cons.
    destruct ((ai_group ix =? g) && (ai_index ix =? i)); simpl.
    + pose proof (held_ix_pos ix). unfold held_ix in *. destruct (N.eqb_spec (ai_frac ix) 0); simpl.
      * split; intros Hx; [lia|]. destruct (C2 Hx); lia.
      * split; [lia | discriminate].
    + split; intros Hx; [specialize (C1 Hx); lia | destruct (C2 Hx); lia].
Qed.

Definition pool_us (p0 : pool) : list (list N) := map g_idx (pool_groups p0).

Definition sum_mirror (free : N) (c : cstate) : Prop :=
  exists cg, c = [cg] /\ c_units cg * FPU + fget0 (c_fr cg) 0 = free /\ fget0 (c_fr cg) 0 < FPU
             /\ forall i, i <> 0 -> fget0 (c_fr cg) i = 0.

Definition PoolInv (p0 p : pool) (c : cstate) (H : list aidx) (taken : N) : Prop :=
  same_kind p0 p = true /\ pool_full_size p = pool_full_size p0
  /\ match p with
     | PSum f free => free + taken = f /\ sum_mirror free c /\ H = []
     | _ => GsI (pool_us p0) (pool_groups p) (hsum H) (hfany H) /\ gs_mirror (pool_groups p) c
            /\ gs_wf (pool_groups p)
            /\ Forall (fun ix => ai_frac ix < FPU /\ ai_group ix < len (pool_groups p)) H
     end.

Lemma shape_ok_frac ixs : shape_ok ixs = true -> Forall (fun ix => ai_frac ix < FPU) ixs.
Proof.
  induction ixs as [|ix [|iy l] IH]; simpl; intros H; constructor; auto.
  - lia.
  - apply andb_true_iff in H. destruct H. pose proof FPU_pos. lia.
  - apply andb_true_iff in H. destruct H. auto.
Qed.

Definition whole (ix : aidx) : Prop := ai_frac ix = 0.

Lemma shape_split l : shape_ok l = true ->
  exists ws fs, l = ws ++ fs /\ Forall whole ws
                /\ (fs = [] \/ exists F, fs = [F] /\ ai_frac F <> 0 /\ ai_frac F < FPU).
Proof.
  induction l as [|ix [|iy l] IH]; intros H.
  - exists [], []. repeat split; auto.
  - change (shape_ok [ix]) with (ai_frac ix <? FPU) in H. destruct (N.eqb_spec (ai_frac ix) 0).
    + exists [ix], []. repeat split; auto.
    + exists [], [ix]. repeat split; auto. right. exists ix. repeat split; auto. lia.
  - change (shape_ok (ix :: iy :: l)) with ((ai_frac ix =? 0) && shape_ok (iy :: l)) in H.
    apply andb_true_iff in H. destruct H as [H1 H2]. apply N.eqb_eq in H1.
    destruct (IH H2) as (ws & fs & E & Hw & Hf). exists (ix :: ws), fs. rewrite E. repeat split; auto.
Qed.

Lemma ra_total_sum l : fold_right N.add 0 (map held_ix l) = sumN (map held_ix l).
Proof. reflexivity. Qed.

Lemma sum_whole ws : Forall whole ws -> sumN (map held_ix ws) = len ws * FPU.
Proof.
  induction 1 as [|ix ws Hx Hw IH]; cbn [map]; [reflexivity|].
  rewrite sumN_cons, IH. unfold held_ix. rewrite Hx, N.eqb_refl. unfold len. simpl length. lia.
Qed.

Lemma take_all_wf out : forall gs gs', gs_wf gs -> take_all gs out = Some gs' -> gs_wf gs'.
Proof.
  induction out as [|ix out IH]; intros gs gs' Hwf Ht; simpl in Ht.
  - inversion Ht; subst; auto.
  - destruct (get_at gs (ai_group ix)) as [g| |] eqn:Eg; try discriminate.
    destruct (take1 g ix) as [g'|] eqn:Et; try discriminate.
    apply get_at_ok in Eg. destruct Eg as [Hlt Hnth].
    eapply IH; [|eauto]. apply Forall_set_at; auto. eapply take1_wf; eauto. eapply Forall_nth; eauto.
Qed.

Lemma single_whole ws : forall g g1 cg,
  Forall whole ws -> take_all [g] ws = Some [g1] -> cmirror g cg ->
  len ws <= c_units cg /\ cmirror g1 (mkCgroup (c_units cg - len ws) (c_fr cg)) /\ Forall (fun ix => ai_group ix = 0) ws.
Proof.
  induction ws as [|ix ws IH]; intros g g1 cg Hw Ht Hm; simpl in Ht.
  - inversion Ht; subst. unfold len; simpl. destruct Hm as [Hu Hf]. repeat split; auto; simpl; try lia.
  - inversion Hw as [|? ? Hx Hw']; subst.
    destruct (get_at [g] (ai_group ix)) as [g0| |] eqn:Eg; try discriminate.
    apply get_at_ok in Eg. destruct Eg as [Hlt Hnth]. unfold len in Hlt; simpl in Hlt.
    assert (Hg0 : ai_group ix = 0) by lia. rewrite Hg0 in *. simpl in Hnth. inversion Hnth; subst g0.
    destruct (take1 g ix) as [g'|] eqn:Et; try discriminate.
    rewrite take1_memN in Et; cbv zeta in Et. unfold whole in Hx. rewrite Hx in Et. simpl in Et.
    destruct (memN (ai_index ix) (g_idx g)) eqn:E; [|discriminate]. inversion Et; subst g'; clear Et.
    apply memN_in in E. pose proof (len_removeN _ _ E).
    unfold set_at in Ht. simpl in Ht.
    destruct Hm as [Hu Hf].
    destruct (IH _ _ (mkCgroup (c_units cg - 1) (c_fr cg)) Hw' Ht) as (A & B & C).
    { split; simpl; [lia | auto]. }
    simpl in *. unfold len in *. simpl length. repeat split; auto; try lia.
    + destruct B as [B1 B2]. simpl in *. lia.
    + destruct B as [B1 B2]. auto.
Qed.

Lemma same_kind_trans a b c : same_kind a b = true -> same_kind b c = true -> same_kind a c = true.
Proof. destruct a, b, c; simpl; auto; discriminate. Qed.

(** ConciseResourceState::remove on a sum resource *)
Lemma cs_remove_sum free c ra :
  sum_mirror free c -> ra_amount ra <= free -> ra_indices ra = [] ->
  exists c', cs_remove c ra = Ok c' /\ sum_mirror (free - ra_amount ra) c'.
Proof.
  intros (cg & -> & Hsum & Hlt & Hoth) Hle Hnil. unfold cs_remove. rewrite Hnil.
  destruct (split_recompose (ra_amount ra)) as [Hrec Hf]. destruct (split (ra_amount ra)) as [u f]. cbn [fst snd] in Hrec, Hf.
  assert (Hother : forall v i, i <> 0 -> fget0 (fset (c_fr cg) 0 v) i = 0).
  { intros v i Hi. rewrite fget0_fset. destruct (N.eqb_spec 0 i); [congruence|auto]. }
  unfold FPU, FRACTIONS_PER_UNIT in Hsum, Hlt, Hrec, Hf.
  destruct (N.ltb_spec (c_units cg) u); [lia|].
  destruct (N.ltb_spec 0 f) as [Hpos|Hz].
  - unfold remove_fractions. rewrite get_at_single. cbn [bind c_units c_fr]. cbv zeta.
    destruct (N.ltb_spec (fget0 (c_fr cg) 0) f) as [Hb|Hb].
    + destruct (N.eqb_spec (c_units cg - u) 0); [lia|].
      eexists; split; [reflexivity|]. eexists; split; [reflexivity|]. cbn [c_units c_fr].
      rewrite fget0_fset, N.eqb_refl. unfold FPU, FRACTIONS_PER_UNIT. repeat split; auto; lia.
    + eexists; split; [reflexivity|]. eexists; split; [reflexivity|]. cbn [c_units c_fr].
      rewrite fget0_fset, N.eqb_refl. unfold FPU, FRACTIONS_PER_UNIT. repeat split; auto; lia.
  - eexists; split; [reflexivity|]. eexists; split; [reflexivity|]. cbn [c_units c_fr].
    unfold FPU, FRACTIONS_PER_UNIT. repeat split; auto; lia.
Qed.

Lemma fr_loop_single_whole f s l : Forall whole l -> fr_loop_single f s l = Ok s.
Proof. intros H. destruct H as [|ix l Hx _]; simpl; auto. unfold whole in Hx. rewrite Hx. auto. Qed.

(** ConciseResourceState::remove when the resource has a single group *)
Lemma cs_remove_single g cg ra g' :
  gwf g -> cmirror g cg -> shape_ok (ra_indices ra) = true -> ra_total ra = ra_amount ra ->
  take_all [g] (ra_indices ra) = Some [g'] ->
  exists cg', cs_remove [cg] ra = Ok [cg'] /\ cmirror g' cg'.
Proof.
  intros Hwf Hm Hshape Htot Ht.
  destruct (shape_split _ Hshape) as (ws & fs & E & Hw & Hf).
  rewrite E in Ht. rewrite take_all_app in Ht.
  destruct (take_all [g] ws) as [gs1|] eqn:Ews; [|discriminate].
  pose proof (take_all_length _ _ _ Ews) as Hl1. destruct gs1 as [|g1 [|? ?]]; try discriminate Hl1.
  destruct (single_whole _ _ _ _ Hw Ews Hm) as (Hle & Hm1 & Hg0).
  assert (Hwf1 : gwf g1).
  { assert (X : gs_wf [g1]) by (eapply take_all_wf; [|eauto]; constructor; auto). inversion X; auto. }
  unfold ra_total in Htot. rewrite ra_total_sum, E, map_app, sumN_app, (sum_whole _ Hw) in Htot.
  unfold cs_remove. rewrite <- Htot.
  destruct Hf as [->|(F & -> & HFz & HFl)].
  - cbn [map] in Htot |- *. rewrite sumN_nil in *. rewrite split_mk by apply FPU_pos.
    simpl in Ht. inversion Ht; subst g'.
    destruct (N.ltb_spec (c_units cg) (len ws)); [lia|]. simpl.
    eexists; split; [reflexivity|]. auto.
  - cbn [map] in Htot |- *. rewrite sumN_cons, sumN_nil in *.
    assert (HhF : held_ix F = ai_frac F) by (unfold held_ix; destruct (N.eqb_spec (ai_frac F) 0); congruence).
    rewrite HhF, N.add_0_r in *. rewrite split_mk by auto.
    destruct (N.ltb_spec (c_units cg) (len ws)); [lia|].
    destruct (N.ltb_spec 0 (ai_frac F)); [|lia].
    simpl in Ht. destruct (get_at [g1] (ai_group F)) as [g0| |] eqn:Eg; try discriminate.
    apply get_at_ok in Eg. destruct Eg as [Hlt Hnth]. unfold len in Hlt; simpl in Hlt.
    assert (HgF : ai_group F = 0) by lia. rewrite HgF in *. simpl in Hnth. inversion Hnth; subst g0.
    destruct (take1 g1 F) as [g2|] eqn:Et; try discriminate. unfold set_at in Ht; simpl in Ht. inversion Ht; subst g2.
    destruct (ctake1_mirror _ _ _ _ Hwf1 Hm1 Et) as (c' & Hc' & Hm').
    rewrite E. destruct (ws ++ [F]) eqn:EE; [destruct ws; discriminate|]. rewrite <- EE. clear EE.
    rewrite rev_app_distr. simpl rev. simpl app. cbn [fr_loop_single].
    destruct (N.eqb_spec (ai_frac F) 0); [congruence|].
    rewrite remove_fractions_ctake1 by auto. rewrite get_at_single, Hc'. cbn [bind].
    unfold set_at; simpl. rewrite fr_loop_single_whole.
    + eexists; split; [reflexivity|]. auto.
    + apply Forall_rev; auto.
Qed.

Lemma hsum_app_ext H l g i : hsum H g i + hsum l g i = hsum (H ++ l) g i.
Proof. rewrite hsum_app. auto. Qed.


Definition PoolCore (p0 p : pool) (H : list aidx) (taken : N) : Prop :=
  same_kind p0 p = true /\ pool_full_size p = pool_full_size p0
  /\ match p with
     | PSum f free => free + taken = f /\ H = []
     | _ => GsI (pool_us p0) (pool_groups p) (hsum H) (hfany H)
            /\ Forall (fun ix => ai_frac ix < FPU /\ ai_group ix < len (pool_groups p)) H
     end.

Lemma GsI_wf us gs h hf : GsI us gs h hf -> gs_wf gs.
Proof.
  intros [L H]. apply Forall_forall. intros g Hin. apply In_nth_error in Hin. destruct Hin as [n Hn].
  assert (Hlt : (n < length gs)%nat) by (eapply nth_error_some_lt; eauto).
  destruct (nth_error us n) as [u|] eqn:Eu; [|apply nth_error_None in Eu; lia].
  specialize (H (N.of_nat n) u g). rewrite nat_of_of_nat in H. destruct H as [Hwf _]; auto. unfold len. lia.
Qed.


Lemma PoolCore_wf p0 p H taken : PoolCore p0 p H taken -> gs_wf (pool_groups p).
Proof. intros (_ & _ & C). destruct p; try (eapply GsI_wf; apply C). constructor. Qed.

Lemma claim_groups us gs H out gs' :
  GsI us gs (hsum H) (hfany H) -> Forall (fun ix => ai_frac ix < FPU /\ ai_group ix < len gs) H ->
  shape_ok out = true -> take_all gs out = Some gs' ->
  GsI us gs' (hsum (H ++ out)) (hfany (H ++ out))
  /\ Forall (fun ix => ai_frac ix < FPU /\ ai_group ix < len gs') (H ++ out).
Proof.
  intros HG Hb Hshape Ht. destruct (take_all_GsI _ _ _ _ _ _ HG Ht) as [HG' Hgrp]. split.
  - eapply GsI_ext; [| |exact HG']; intros; simpl; rewrite ?hsum_app, ?hfany_app; auto.
  - assert (Hlen : len gs' = len gs) by (unfold len; rewrite (take_all_length _ _ _ Ht); auto). rewrite Hlen.
    apply Forall_app. split; auto. pose proof (shape_ok_frac _ Hshape) as Hfr.
    rewrite Forall_forall in *. intros ix Hin. split; auto.
Qed.

Lemma claim_PoolCore p0 p H taken p' rid rq ra :
  PoolCore p0 p H taken -> claim_ok p p' rid rq ra = true ->
  PoolCore p0 p' (H ++ ra_indices ra) (taken + (if pool_is_sum p then ra_amount ra else 0)).
Proof.
  intros (Hk & Hfull & HI) Hok.
  destruct (claim_ok_inv _ _ _ _ _ Hok) as (Hres & Ham & Hk' & Hfull' & Hcl).
  split; [eapply same_kind_trans; eauto|]. split; [congruence|].
  destruct p as [|f g|f gs|f free]; [contradiction| | |]; destruct p'; try discriminate Hk'.
  - destruct HI as (HG & Hb). destruct Hcl as (Hshape & _ & Ht). eapply claim_groups; eauto.
  - destruct HI as (HG & Hb). destruct Hcl as (Hshape & _ & Ht). eapply claim_groups; eauto.
  - destruct HI as (Hsumf & HH). destruct Hcl as (Hle & Hfree' & Hnil). simpl in *. subst.
    rewrite Hnil, app_nil_r. split; auto. lia.
Qed.


Definition pool_mirror (p : pool) (c : cstate) : Prop :=
  match p with PSum _ free => sum_mirror free c | _ => gs_mirror (pool_groups p) c end.

Lemma PoolInv_split p0 p c H taken : PoolInv p0 p c H taken <-> PoolCore p0 p H taken /\ pool_mirror p c.
Proof.
  split.
  - intros (K & F & C). split; [split; [exact K|split; [exact F|]]|]; destruct p; cbv iota in *; tauto.
  - intros [HC M]. pose proof (PoolCore_wf _ _ _ _ HC) as Hwf. destruct HC as (K & F & C).
    split; [exact K|split; [exact F|]]. destruct p; cbn [pool_mirror] in M; cbv iota in *; tauto.
Qed.

Lemma PoolInv_groups p0 p c H taken :
  PoolInv p0 p c H taken -> pool_is_sum p = false ->
  GsI (pool_us p0) (pool_groups p) (hsum H) (hfany H) /\ gs_mirror (pool_groups p) c /\ gs_wf (pool_groups p).
Proof. intros (_ & _ & C) Hs. destruct p; try discriminate Hs; tauto. Qed.

(** ConciseResourceState::remove follows a validated claim *)
Lemma claim_mirror p p' c rid rq ra :
  claim_ok p p' rid rq ra = true -> gs_wf (pool_groups p) -> pool_mirror p c ->
  exists c', cs_remove c ra = Ok c' /\ pool_mirror p' c'.
Proof.
  intros Hok Hwf Hm. destruct (claim_ok_inv _ _ _ _ _ Hok) as (_ & _ & Hk & _ & Hcl).
  assert (Hgroups : forall gs gs', gs_wf gs -> gs_mirror gs c -> shape_ok (ra_indices ra) = true -> ra_total ra = ra_amount ra ->
                                   take_all gs (ra_indices ra) = Some gs' -> exists c', cs_remove c ra = Ok c' /\ gs_mirror gs' c').
  { clear. intros gs gs' Hwf Hm Hshape Htot Ht. destruct gs as [|g [|g2 gs2]].
    - inversion Hm; subst. destruct (remove_loop_groups_mirror _ _ _ _ Hwf Hm Ht) as (c' & A & B & _). eauto.
    - (* one group: the branch of concise.rs that works from the amount *)
      pose proof (take_all_length _ _ _ Ht) as Hl. destruct gs' as [|g' [|? ?]]; try discriminate Hl.
      inversion Hm as [|? cg ? ? Hmg Hm']; subst. inversion Hm'; subst. inversion Hwf as [|? ? Hwg _]; subst.
      destruct (cs_remove_single _ _ _ _ Hwg Hmg Hshape Htot Ht) as (cg' & A & B).
      exists [cg']. split; auto. constructor; auto.
    - inversion Hm as [|? cg ? ? Hmg Hm']; subst. inversion Hm' as [|? cg2 ? ? Hmg2 Hm'']; subst.
      destruct (remove_loop_groups_mirror _ _ _ _ Hwf Hm Ht) as (c' & A & B & _). eauto. }
  destruct p as [|f g|f gs|f free]; [contradiction| | |]; destruct p'; try discriminate Hk; cbn [pool_mirror pool_groups] in *.
  - destruct Hcl as (Hshape & Htot & Ht). eapply Hgroups; eauto.
  - destruct Hcl as (Hshape & Htot & Ht). eapply Hgroups; eauto.
  - destruct Hcl as (Hle & -> & Hnil). apply cs_remove_sum; auto.
Qed.

Lemma claim_PoolInv p0 p c H taken p' rid rq ra :
  PoolInv p0 p c H taken -> claim_ok p p' rid rq ra = true ->
  exists c', cs_remove c ra = Ok c'
             /\ PoolInv p0 p' c' (H ++ ra_indices ra) (taken + (if pool_is_sum p then ra_amount ra else 0)).
Proof.
  intros HI Hok. apply PoolInv_split in HI. destruct HI as [HC HM].
  destruct (claim_mirror _ _ _ _ _ _ Hok (PoolCore_wf _ _ _ _ HC) HM) as (c' & Hc' & HM').
  exists c'. split; [exact Hc'|]. apply PoolInv_split. split; [|exact HM']. eapply claim_PoolCore; eauto.
Qed.

(** returning a list of AllocationIndex (the loops of release_allocation) never panics for
    indices that are held, and restores the invariant without them *)
Lemma release_list us l : forall gs Hb,
  GsI us gs (hsum (Hb ++ l)) (hfany (Hb ++ l)) ->
  Forall (fun ix => ai_frac ix < FPU /\ ai_group ix < len gs) l ->
  exists gs', release_indices_groups gs l = Ok gs' /\ GsI us gs' (hsum Hb) (hfany Hb) /\ length gs' = length gs.
Proof.
  induction l as [|ix l IH]; intros gs Hb HG Hf; simpl.
  - rewrite app_nil_r in HG. eauto.
  - inversion Hf as [|? ? [Hfr Hgr] Hf']; subst.
    destruct (get_at_lt gs (ai_group ix) Hgr) as [g Hg]. rewrite Hg. cbn [bind].
    pose proof Hg as Hg'. apply get_at_ok in Hg'. destruct Hg' as [_ Hnth].
    destruct HG as [Hlen HG].
    assert (Hu : exists u, nth_error us (nat_of (ai_group ix)) = Some u).
    { destruct (nth_error us (nat_of (ai_group ix))) eqn:E; eauto.
      apply nth_error_None in E. unfold len, nat_of in *. lia. }
    destruct Hu as [u Hu].
    assert (HGI : GI u g (add_h (hsum (Hb ++ l) (ai_group ix)) ix) (add_hf (hfany (Hb ++ l) (ai_group ix)) ix)).
    { eapply GI_ext; [| |eapply HG; eauto]; intros i.
      - rewrite hsum_app, hsum_cons_add, N.eqb_refl. unfold add_h. rewrite hsum_app. lia.
      - rewrite hfany_app, hfany_cons_add, N.eqb_refl. unfold add_hf. rewrite hfany_app, orb_assoc. reflexivity. }
    destruct (release_index_GI _ _ _ _ _ HGI (compat_hsum _ _) Hfr) as (g' & Hr & HGI').
    rewrite Hr. cbn [bind].
    assert (HG1 : GsI us (set_at gs (ai_group ix) g') (hsum (Hb ++ l)) (hfany (Hb ++ l))).
    { eapply GsI_ext; [| |apply (GsI_set_at us gs (hsum (Hb ++ ix :: l)) (hfany (Hb ++ ix :: l)) (ai_group ix) g' (hsum (Hb ++ l) (ai_group ix)) (hfany (Hb ++ l) (ai_group ix)))].
      - intros g0 i. cbv beta. destruct (N.eqb_spec g0 (ai_group ix)) as [->|Hne]; [reflexivity|].
        rewrite !hsum_app, hsum_cons_add. destruct (N.eqb_spec g0 (ai_group ix)); [contradiction|reflexivity].
      - intros g0 i. cbv beta. destruct (N.eqb_spec g0 (ai_group ix)) as [->|Hne]; [reflexivity|].
        rewrite !hfany_app, hfany_cons_add. destruct (N.eqb_spec g0 (ai_group ix)); [contradiction|reflexivity].
      - split; auto.
      - auto.
      - intros u' Hu'. rewrite Hu in Hu'. inversion Hu'; subst. auto. }
    destruct (IH (set_at gs (ai_group ix) g') Hb HG1) as (gs' & A & B & C).
    { rewrite len_set_at. auto. }
    exists gs'. split; auto. split; auto. rewrite C. apply set_at_length.
Qed.
