(** The concise mirror through releases (ConciseResourceState::add vs ResourcePool::release_allocation). *)
From Coq Require Import Permutation.
From HQ Require Import Base.Prelude Gen.Consts Alloc.Model Alloc.Spec Alloc.Lemmas Alloc.Group Alloc.Pool Alloc.Inv Alloc.Theorems.
Require Import ZifyBool.
Open Scope N_scope.

Definition cntg (l : list aidx) (g : N) : N := sumN (map (fun ix => if ai_group ix =? g then 1 else 0) l).
Lemma cntg_cons ix l g : cntg (ix :: l) g = (if ai_group ix =? g then 1 else 0) + cntg l g.
Proof. unfold cntg. cbn [map]. rewrite sumN_cons. auto. Qed.
Lemma cntg_nil g : cntg [] g = 0.
Proof. reflexivity. Qed.
Lemma cntg_perm l l' g : Permutation l l' -> cntg l g = cntg l' g.
Proof. intros. unfold cntg. apply sumN_map_perm. auto. Qed.

(** pushing whole indices back (any order): only the stacks grow, by the number of entries per group *)
Lemma release_wholes l : forall gs gs',
  Forall whole l -> release_indices_groups gs l = Ok gs' ->
  length gs' = length gs
  /\ forall n gr, nth_error gs n = Some gr ->
       exists gr', nth_error gs' n = Some gr' /\ g_fr gr' = g_fr gr
                   /\ len (g_idx gr') = len (g_idx gr) + cntg l (N.of_nat n).
Proof.
  induction l as [|ix l IH]; intros gs gs' Hw Hr; simpl in Hr.
  - inversion Hr; subst. split; auto. intros n gr Hn. exists gr. rewrite cntg_nil. repeat split; auto. lia.
  - inversion Hw as [|? ? Hx Hw']; subst.
    destruct (get_at gs (ai_group ix)) as [g| |] eqn:Eg; simpl in Hr; try discriminate.
    unfold release_index in Hr. unfold whole in Hx. rewrite Hx, N.eqb_refl in Hr. cbn [bind] in Hr.
    apply get_at_ok in Eg. destruct Eg as [Hlt Hnth].
    destruct (IH _ _ Hw' Hr) as [L H]. split; [rewrite L; apply set_at_length|].
    intros n gr Hn. rewrite cntg_cons.
    destruct (Nat.eq_dec (nat_of (ai_group ix)) n) as [E|E].
    + subst n. rewrite Hnth in Hn. inversion Hn; subst gr.
      destruct (H (nat_of (ai_group ix)) (mkGroup (ai_index ix :: g_idx g) (g_fr g))) as (gr' & A & B & C).
      { rewrite nth_error_set_at. destruct (N.ltb_spec (ai_group ix) (len gs)); [|lia]. rewrite Nat.eqb_refl. auto. }
      exists gr'. split; auto. split; auto. simpl in C. rewrite C.
      replace (N.of_nat (nat_of (ai_group ix))) with (ai_group ix) by (unfold nat_of; lia).
      rewrite N.eqb_refl. unfold len. simpl length. lia.
    + destruct (H n gr) as (gr' & A & B & C).
      { rewrite nth_error_set_at. destruct (Nat.eqb_spec (nat_of (ai_group ix)) n); [congruence|]. rewrite andb_false_r. auto. }
      exists gr'. split; auto. split; auto. rewrite C.
      destruct (N.eqb_spec (ai_group ix) (N.of_nat n)); [subst; rewrite e, nat_of_of_nat in E; congruence | lia].
Qed.

Lemma add_wholes l : forall cs,
  Forall whole l -> Forall (fun ix => ai_group ix < len cs) l ->
  exists cs', add_loop_groups cs l = Ok cs' /\ length cs' = length cs
    /\ forall n c, nth_error cs n = Some c ->
         exists c', nth_error cs' n = Some c' /\ c_fr c' = c_fr c /\ c_units c' = c_units c + cntg l (N.of_nat n).
Proof.
  induction l as [|ix l IH]; intros cs Hw Hb; simpl.
  - exists cs. repeat split; auto. intros n c Hn. exists c. rewrite cntg_nil. repeat split; auto. lia.
  - inversion Hw as [|? ? Hx Hw']; subst. inversion Hb as [|? ? Hlt Hb']; subst.
    unfold whole in Hx. rewrite Hx, N.eqb_refl.
    destruct (get_at_lt cs (ai_group ix) Hlt) as [c0 Hc0]. rewrite Hc0. cbn [bind].
    apply get_at_ok in Hc0. destruct Hc0 as [_ Hnth].
    destruct (IH (set_at cs (ai_group ix) (mkCgroup (c_units c0 + 1) (c_fr c0))) Hw') as (cs' & A & L & H).
    { rewrite Forall_forall in *. intros y Hy. rewrite len_set_at. auto. }
    exists cs'. split; auto. split; [rewrite L; apply set_at_length|].
    intros n c Hn. rewrite cntg_cons.
    destruct (Nat.eq_dec (nat_of (ai_group ix)) n) as [E|E].
    + subst n. rewrite Hnth in Hn. inversion Hn; subst c.
      destruct (H (nat_of (ai_group ix)) (mkCgroup (c_units c0 + 1) (c_fr c0))) as (c' & P & Q & R).
      { rewrite nth_error_set_at. destruct (N.ltb_spec (ai_group ix) (len cs)); [|lia]. rewrite Nat.eqb_refl. auto. }
      exists c'. split; auto. split; auto. simpl in R. rewrite R.
      replace (N.of_nat (nat_of (ai_group ix))) with (ai_group ix) by (unfold nat_of; lia).
      rewrite N.eqb_refl. lia.
    + destruct (H n c) as (c' & P & Q & R).
      { rewrite nth_error_set_at. destruct (Nat.eqb_spec (nat_of (ai_group ix)) n); [congruence|]. rewrite andb_false_r. auto. }
      exists c'. split; auto. split; auto. rewrite R.
      destruct (N.eqb_spec (ai_group ix) (N.of_nat n)); [subst; rewrite e, nat_of_of_nat in E; congruence | lia].
Qed.

Lemma release_groups_app a : forall b gs,
  release_indices_groups gs (a ++ b) =
  match release_indices_groups gs a with Ok gs1 => release_indices_groups gs1 b | Panic s => Panic s | Disabled => Disabled end.
Proof.
  induction a as [|ix a IH]; intros b gs; simpl; auto.
  destruct (get_at gs (ai_group ix)); simpl; auto. destruct (release_index a0 ix); simpl; auto.
Qed.

Lemma add_loop_app a : forall b cs,
  add_loop_groups cs (a ++ b) =
  match add_loop_groups cs a with Ok cs1 => add_loop_groups cs1 b | Panic s => Panic s | Disabled => Disabled end.
Proof.
  induction a as [|ix a IH]; intros b cs; simpl; auto.
  destruct (ai_frac ix =? 0).
  - destruct (get_at cs (ai_group ix)); simpl; auto.
  - destruct (add_fractions cs (ai_group ix) (ai_index ix) (ai_frac ix)); simpl; auto.
Qed.

Lemma add_fractions_cgive1 s gi ix :
  ai_frac ix <> 0 ->
  add_fractions s gi (ai_index ix) (ai_frac ix) =
  match get_at s gi with
  | Ok c => match cgive1 c ix with Ok c' => Ok (set_at s gi c') | Panic p => Panic p | Disabled => Disabled end
  | Panic p => Panic p | Disabled => Disabled
  end.
Proof.
  intros Hz. unfold add_fractions, cgive1. destruct (get_at s gi); simpl; auto.
  destruct (N.eqb_spec (ai_frac ix) 0); [congruence|].
  destruct (FPU <=? fget0 (c_fr a) (ai_index ix) + ai_frac ix); auto.
  destruct (FPU <=? fget0 (c_fr a) (ai_index ix) + ai_frac ix - FPU); auto.
Qed.

(** cgive1 does not look at the units: an offset on the units commutes *)
Lemma cgive1_offset c ix k c' :
  cgive1 c ix = Ok c' -> cgive1 (mkCgroup (c_units c + k) (c_fr c)) ix = Ok (mkCgroup (c_units c' + k) (c_fr c')).
Proof.
  unfold cgive1. simpl. destruct (ai_frac ix =? 0).
  - intros H; inversion H; subst; simpl. f_equal. f_equal. lia.
  - destruct (FPU <=? fget0 (c_fr c) (ai_index ix) + ai_frac ix).
    + destruct (FPU <=? fget0 (c_fr c) (ai_index ix) + ai_frac ix - FPU); [discriminate|].
      intros H; inversion H; subst; simpl. f_equal. f_equal. lia.
    + intros H; inversion H; subst; simpl. auto.
Qed.

Lemma Forall2_from_nth {A B} (R : A -> B -> Prop) : forall l l',
  length l = length l' ->
  (forall n x y, nth_error l n = Some x -> nth_error l' n = Some y -> R x y) -> Forall2 R l l'.
Proof.
  induction l as [|x l IH]; intros [|y l'] L H; simpl in L; try discriminate; constructor.
  - apply (H O); auto.
  - apply IH; [lia|]. intros n a b Ha Hb. apply (H (S n)); auto.
Qed.

Lemma Forall2_nth2 {A B} (R : A -> B -> Prop) l l' n x y :
  Forall2 R l l' -> nth_error l n = Some x -> nth_error l' n = Some y -> R x y.
Proof.
  intros H Hx Hy. destruct (Forall2_nth _ _ _ _ _ H Hx) as [y' [A1 A2]]. congruence.
Qed.

Lemma release_mirror_wholes gs cs ws gs' :
  gs_mirror gs cs -> Forall whole ws -> Forall (fun ix => ai_group ix < len gs) ws ->
  release_indices_groups gs (rev ws) = Ok gs' ->
  exists cs', add_loop_groups cs ws = Ok cs' /\ gs_mirror gs' cs'.
Proof.
  intros Hm Hw Hb Hr.
  destruct (release_wholes _ _ _ (Forall_rev Hw) Hr) as [L1 H1].
  assert (Hb' : Forall (fun ix => ai_group ix < len cs) ws).
  { rewrite <- (Forall2_len _ _ _ Hm). auto. }
  destruct (add_wholes _ cs Hw Hb') as (cs' & A & L2 & H2).
  exists cs'. split; auto. apply Forall2_from_nth.
  - rewrite L1, L2. unfold gs_mirror in Hm. clear -Hm. induction Hm; simpl; auto.
  - intros n g' c' Hg' Hc'.
    assert (Hn : (n < length gs)%nat) by (rewrite <- L1; eapply nth_error_some_lt; eauto).
    destruct (nth_error gs n) as [g|] eqn:Eg; [|apply nth_error_None in Eg; lia].
    destruct (Forall2_nth _ _ _ _ _ Hm Eg) as [c [Ec [Mu Mf]]].
    destruct (H1 n g Eg) as (g2 & P1 & P2 & P3). destruct (H2 n c Ec) as (c2 & Q1 & Q2 & Q3).
    rewrite Hg' in P1. inversion P1; subst g2. rewrite Hc' in Q1. inversion Q1; subst c2.
    split.
    + rewrite Q3, P3, Mu. rewrite (cntg_perm (rev ws) ws); auto. apply Permutation_sym, Permutation_rev.
    + intros i. rewrite Q2, P2. auto.
Qed.

Lemma cgroup_eta c u f : c_units c = u -> c_fr c = f -> c = mkCgroup u f.
Proof. destruct c; simpl; intros; subst; auto. Qed.

Lemma release_mirror_frac gs cs ws F gs' u h hf :
  gs_mirror gs cs -> Forall whole ws -> Forall (fun ix => ai_group ix < len gs) ws ->
  (forall g, nth_error gs (nat_of (ai_group F)) = Some g -> GI u g (add_h h F) (add_hf hf F)) ->
  ai_frac F <> 0 -> ai_frac F < FPU ->
  release_indices_groups gs (F :: rev ws) = Ok gs' ->
  exists cs', add_loop_groups cs (ws ++ [F]) = Ok cs' /\ gs_mirror gs' cs'.
Proof.
  intros Hm Hw Hb HGI Hz Hlt Hr. simpl in Hr.
  destruct (get_at gs (ai_group F)) as [g| |] eqn:Eg; simpl in Hr; try discriminate.
  destruct (release_index g F) as [g1| |] eqn:Er; simpl in Hr; try discriminate.
  apply get_at_ok in Eg. destruct Eg as [HltF Hnth].
  destruct (Forall2_nth _ _ _ _ _ Hm Hnth) as [c [Ec Mc]].
  destruct (cgive1_mirror _ _ _ _ _ _ _ (HGI g Hnth) Mc Er Hlt) as (c1 & Hc1 & Mc1).
  assert (Hm1 : gs_mirror (set_at gs (ai_group F) g1) (set_at cs (ai_group F) c1)) by (apply Forall2_set_at; auto).
  assert (Hb1 : Forall (fun ix => ai_group ix < len (set_at gs (ai_group F) g1)) ws).
  { rewrite Forall_forall in *. intros y Hy. rewrite len_set_at. auto. }
  destruct (release_mirror_wholes _ _ _ _ Hm1 Hw Hb1 Hr) as (cs2 & A2 & M2).
  exists cs2. split; auto.
  (* add ws, then F  =  F first (on the units-offset group), then ws *)
  rewrite add_loop_app.
  assert (Hlen : len cs = len gs) by (symmetry; apply (Forall2_len _ _ _ Hm)).
  assert (Hbc : Forall (fun ix => ai_group ix < len cs) ws) by (rewrite Hlen; auto).
  destruct (add_wholes _ cs Hw Hbc) as (csw & Aw & Lw & Hw2). rewrite Aw.
  assert (Hbc1 : Forall (fun ix => ai_group ix < len (set_at cs (ai_group F) c1)) ws).
  { rewrite Forall_forall in *. intros y Hy. rewrite len_set_at. auto. }
  destruct (add_wholes _ (set_at cs (ai_group F) c1) Hw Hbc1) as (cs2' & A2' & L2 & H2).
  rewrite A2 in A2'. inversion A2'; subst cs2'. clear A2'.
  simpl add_loop_groups. destruct (N.eqb_spec (ai_frac F) 0); [congruence|].
  rewrite add_fractions_cgive1 by auto.
  destruct (Hw2 _ _ Ec) as (cw & Pw & Qw & Rw).
  assert (Hgw : get_at csw (ai_group F) = Ok cw).
  { apply get_at_ok. split; auto. unfold len in *. rewrite Lw. lia. }
  rewrite Hgw.
  rewrite (cgroup_eta cw _ _ Rw Qw). rewrite (cgive1_offset _ _ _ _ Hc1). cbn [bind].
  f_equal. apply nth_error_ext. intros k.
  rewrite nth_error_set_at.
  assert (HltW : ai_group F < len csw) by (unfold len in *; rewrite Lw; lia).
  destruct (N.ltb_spec (ai_group F) (len csw)); [|lia]. simpl.
  destruct (Nat.eqb_spec (nat_of (ai_group F)) k) as [E|E].
  - subst k. destruct (H2 (nat_of (ai_group F)) c1) as (c2 & P2 & Q2 & R2).
    { rewrite nth_error_set_at. destruct (N.ltb_spec (ai_group F) (len cs)); [|lia]. rewrite Nat.eqb_refl. auto. }
    rewrite P2. f_equal. symmetry. apply cgroup_eta; auto.
  - destruct (nth_error cs k) as [cn|] eqn:En.
    + destruct (Hw2 _ _ En) as (cwn & Pn & Qn & Rn).
      destruct (H2 k cn) as (c2 & P2 & Q2 & R2).
      { rewrite nth_error_set_at. destruct (Nat.eqb_spec (nat_of (ai_group F)) k); [congruence|]. rewrite andb_false_r. auto. }
      rewrite Pn, P2. f_equal. rewrite (cgroup_eta cwn _ _ Rn Qn). symmetry. apply cgroup_eta; congruence.
    + assert (nth_error csw k = None) by (apply nth_error_None; apply nth_error_None in En; lia).
      assert (nth_error cs2 k = None).
      { apply nth_error_None. apply nth_error_None in En. rewrite L2, set_at_length. lia. }
      congruence.
Qed.

Lemma add_loop_single_wholes ws : forall c,
  Forall whole ws -> Forall (fun ix => ai_group ix = 0) ws ->
  add_loop_groups [c] ws = Ok [mkCgroup (c_units c + len ws) (c_fr c)].
Proof.
  induction ws as [|ix ws IH]; intros c Hw Hg; simpl.
  - unfold len; simpl. rewrite N.add_0_r. destruct c; auto.
  - inversion Hw as [|? ? Hx Hw']; subst. inversion Hg as [|? ? Hg0 Hg']; subst.
    unfold whole in Hx. rewrite Hx, N.eqb_refl, Hg0. rewrite get_at_single. cbn [bind].
    change (set_at [c] 0 (mkCgroup (c_units c + 1) (c_fr c))) with [mkCgroup (c_units c + 1) (c_fr c)].
    rewrite IH by auto. simpl. f_equal. f_equal. f_equal. unfold len. simpl length. lia.
Qed.

Lemma bind_ok_id {A} (r : res A) : bind r (fun x => Ok x) = r.
Proof. destruct r; auto. Qed.

Lemma cs_add_single_eq cg ra :
  shape_ok (ra_indices ra) = true -> ra_total ra = ra_amount ra ->
  Forall (fun ix => ai_group ix = 0) (ra_indices ra) ->
  cs_add [cg] ra = add_loop_groups [cg] (ra_indices ra).
Proof.
  intros Hshape Htot Hg0.
  destruct (shape_split _ Hshape) as (ws & fs & E & Hw & Hf).
  unfold ra_total in Htot. rewrite ra_total_sum, E, map_app, sumN_app, (sum_whole _ Hw) in Htot.
  rewrite E in Hg0. apply Forall_app in Hg0. destruct Hg0 as [Hg1 Hg2].
  unfold cs_add. rewrite <- Htot, E. destruct Hf as [->|(F & -> & HFz & HFl)].
  - cbn [map] in *. rewrite sumN_nil. rewrite split_mk by apply FPU_pos. rewrite app_nil_r.
    destruct (N.ltb_spec 0 0); [lia|]. rewrite add_loop_single_wholes; auto.
  - cbn [map] in *. rewrite sumN_cons, sumN_nil.
    assert (HhF : held_ix F = ai_frac F) by (unfold held_ix; destruct (N.eqb_spec (ai_frac F) 0); congruence).
    rewrite HhF, N.add_0_r. rewrite split_mk by auto.
    destruct (N.ltb_spec 0 (ai_frac F)); [|lia].
    destruct (ws ++ [F]) eqn:EE; [destruct ws; discriminate|]. rewrite <- EE. clear EE.
    rewrite rev_app_distr. simpl rev. simpl app. cbn [fr_loop_single].
    destruct (N.eqb_spec (ai_frac F) 0); [congruence|].
    rewrite add_loop_app, add_loop_single_wholes by auto.
    inversion Hg2 as [|? ? HgF _]; subst. simpl add_loop_groups.
    destruct (N.eqb_spec (ai_frac F) 0); [congruence|]. rewrite HgF.
    destruct (add_fractions [mkCgroup (c_units cg + len ws) (c_fr cg)] 0 (ai_index F) (ai_frac F)); cbn [bind]; auto.
    apply fr_loop_single_whole. apply Forall_rev; auto.
Qed.

(** ConciseResourceState::add mirrors ResourcePool::release_allocation (index / group pools) *)
Lemma cs_add_mirror us gs cs Hb ra gs' :
  gs_mirror gs cs -> shape_ok (ra_indices ra) = true -> ra_total ra = ra_amount ra ->
  Forall (fun ix => ai_frac ix < FPU /\ ai_group ix < len gs) (ra_indices ra) ->
  GsI us gs (hsum (Hb ++ ra_indices ra)) (hfany (Hb ++ ra_indices ra)) ->
  release_indices_groups gs (rev (ra_indices ra)) = Ok gs' ->
  exists cs', cs_add cs ra = Ok cs' /\ gs_mirror gs' cs'.
Proof.
  intros Hm Hshape Htot Hb0 HG Hr.
  assert (Hloop : exists cs', add_loop_groups cs (ra_indices ra) = Ok cs' /\ gs_mirror gs' cs').
  { destruct (shape_split _ Hshape) as (ws & fs & E & Hw & Hf).
    rewrite E in *. apply Forall_app in Hb0. destruct Hb0 as [Hbw Hbf].
    assert (Hbw' : Forall (fun ix => ai_group ix < len gs) ws).
    { rewrite Forall_forall in *. intros y Hy. apply Hbw; auto. }
    destruct Hf as [->|(F & -> & HFz & HFl)].
    - rewrite app_nil_r in *. eapply release_mirror_wholes; eauto.
    - rewrite rev_app_distr in Hr. simpl rev in Hr. simpl app in Hr.
      inversion Hbf as [|? ? [_ HgF] _]; subst.
      destruct HG as [Lg HG].
      assert (Hu : exists u, nth_error us (nat_of (ai_group F)) = Some u).
      { destruct (nth_error us (nat_of (ai_group F))) eqn:E1; eauto.
        apply nth_error_None in E1. unfold len, nat_of in *. lia. }
      destruct Hu as [u Hu].
      eapply (release_mirror_frac gs cs ws F gs' u (hsum (Hb ++ ws) (ai_group F)) (hfany (Hb ++ ws) (ai_group F))); eauto.
      intros g Hg. eapply GI_ext; [| |eapply HG; eauto]; intros i; unfold add_h, add_hf;
        rewrite ?app_assoc, ?hsum_app, ?hfany_app; unfold hsum, hfany; cbn [map existsb]; rewrite ?sumN_cons, ?sumN_nil, N.eqb_refl; simpl.
      + destruct (N.eqb_spec i (ai_index F)); destruct (N.eqb_spec (ai_index F) i); try congruence; lia.
      + destruct (N.eqb_spec i (ai_index F)); destruct (N.eqb_spec (ai_index F) i); try congruence; simpl; rewrite ?orb_false_r; auto. }
  destruct Hloop as (cs' & A & B). exists cs'. split; auto.
  destruct cs as [|cg [|c2 cs2]]; try exact A.
  rewrite cs_add_single_eq; auto.
  assert (len gs = 1) by (rewrite (Forall2_len _ _ _ Hm); reflexivity).
  rewrite Forall_forall in *. intros y Hy. destruct (Hb0 y Hy). lia.
Qed.

(** ... and for a sum resource *)
Lemma cs_add_sum free c ra :
  sum_mirror free c -> ra_indices ra = [] ->
  exists c', cs_add c ra = Ok c' /\ sum_mirror (free + ra_amount ra) c'.
Proof.
  intros (cg & -> & Hsum & Hlt & Hoth) Hnil. unfold cs_add. rewrite Hnil.
  destruct (split_recompose (ra_amount ra)) as [Hrec Hf]. destruct (split (ra_amount ra)) as [u f]. cbn [fst snd] in Hrec, Hf.
  assert (Hother : forall v i, i <> 0 -> fget0 (fset (c_fr cg) 0 v) i = 0).
  { intros v i Hi. rewrite fget0_fset. destruct (N.eqb_spec 0 i); [congruence|auto]. }
  unfold FPU, FRACTIONS_PER_UNIT in Hsum, Hlt, Hrec, Hf.
  destruct (N.ltb_spec 0 f) as [Hpos|Hz].
  - unfold add_fractions. rewrite get_at_single. cbn [bind c_units c_fr]. cbv zeta.
    destruct (N.leb_spec FPU (fget0 (c_fr cg) 0 + f)) as [Hb|Hb]; unfold FPU, FRACTIONS_PER_UNIT in Hb.
    + destruct (N.leb_spec FPU (fget0 (c_fr cg) 0 + f - FPU)) as [Hc|Hc]; unfold FPU, FRACTIONS_PER_UNIT in Hc; [lia|].
      eexists; split; [reflexivity|]. eexists; split; [reflexivity|]. cbn [c_units c_fr].
      rewrite fget0_fset, N.eqb_refl. unfold FPU, FRACTIONS_PER_UNIT. repeat split; auto; lia.
    + eexists; split; [reflexivity|]. eexists; split; [reflexivity|]. cbn [c_units c_fr].
      rewrite fget0_fset, N.eqb_refl. unfold FPU, FRACTIONS_PER_UNIT. repeat split; auto; lia.
  - eexists; split; [reflexivity|]. eexists; split; [reflexivity|]. cbn [c_units c_fr].
    unfold FPU, FRACTIONS_PER_UNIT. repeat split; auto; lia.
Qed.


Definition ra_wf (p : pool) (ra : ralloc) : Prop :=
  match p with PSum _ _ => True | _ => shape_ok (ra_indices ra) = true /\ ra_total ra = ra_amount ra end.

Lemma release_mirror p0 p c H' taken ra p' :
  PoolCore p0 p (H' ++ ra_indices ra) taken -> pool_mirror p c ->
  ra_wf p ra -> pool_release p ra = Ok p' ->
  exists c', cs_add c ra = Ok c' /\ pool_mirror p' c'.
Proof.
  intros (K & F & C) Hm Hwf Hr. destruct p as [|f g|f gs|f free]; simpl in Hr; try discriminate; cbn [pool_mirror pool_groups] in *.
  - destruct C as (HG & Hb). destruct Hwf as [Hshape Htot]. apply Forall_app in Hb. destruct Hb as [_ Hb2].
    assert (Hg0 : Forall (fun ix => ai_group ix = 0) (rev (ra_indices ra))).
    { apply Forall_rev. rewrite Forall_forall in *. intros ix Hin. destruct (Hb2 ix Hin) as [_ X]. unfold len in X; simpl in X. lia. }
    destruct (release_indices_single g (rev (ra_indices ra))) as [g'| |] eqn:Er; simpl in Hr; try discriminate.
    inversion Hr; subst p'. eapply cs_add_mirror; eauto. rewrite release_single_groups by auto. rewrite Er. reflexivity.
  - destruct C as (HG & Hb). destruct Hwf as [Hshape Htot]. apply Forall_app in Hb. destruct Hb as [_ Hb2].
    destruct (release_indices_groups gs (rev (ra_indices ra))) as [gs'| |] eqn:Er; simpl in Hr; try discriminate.
    inversion Hr; subst p'. eapply cs_add_mirror; eauto.
  - destruct C as (_ & C2). apply app_eq_nil in C2. destruct C2 as [_ C3].
    destruct (f <? free + ra_amount ra); try discriminate.
    destruct (len (ra_indices ra) =? 0); simpl in Hr; try discriminate. inversion Hr; subst p'.
    apply cs_add_sum; auto.
Qed.
