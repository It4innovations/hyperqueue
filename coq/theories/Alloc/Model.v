(** Executable model of tako's worker-side resource allocator (properties C04, C16).

    Function by function with
      crates/tako/src/internal/worker/resources/{pool.rs,concise.rs,groups.rs,allocator.rs}
      crates/tako/src/internal/common/resources/{amount.rs,allocation.rs,request.rs,descriptor.rs}

    Conventions
    * amounts are [N] in fractions ([FPU] = FRACTIONS_PER_UNIT fractions per unit);
      [split a = (a / FPU, a mod FPU)].
    * a Rust [Vec<ResourceIndex>] used as a stack (push/pop at the end) is a list whose HEAD is the
      LAST element of the Vec (top of the stack).
    * a Rust [Map<ResourceIndex, ResourceFractions>] (hash map) is an association list with
      pairwise distinct keys; the only place where the hash order is observable is the tie break of
      [best_fraction_match] (min_by_key over the iteration order) - that choice is a WITNESS.
    * the answer of the HiGHS group solver is a WITNESS (the selected group sets) which the model
      checks for feasibility against the very constraint rows groups.rs builds; its objective value
      is recomputed exactly (scaled to integers).
    * every unwrap / expect / assert! / unreachable! / index / arithmetic overflow of the modelled
      functions is a [Panic site]; a loop that would not terminate is [Panic SITE_HANG];
      a witness the model does not accept is [Disabled]. *)
From HQ Require Import Base.Prelude Gen.Consts.
Open Scope N_scope.

Definition FPU : N := FRACTIONS_PER_UNIT.

(** Panic sites *)
Definition SITE_POP : N := 1.            (* pool_indices.pop().unwrap() *)
Definition SITE_UNREACHABLE : N := 2.    (* unreachable!() in pool.rs *)
Definition SITE_INDEX : N := 3.          (* slice / Vec index out of bounds *)
Definition SITE_HANG : N := 4.           (* a loop of the real code that never terminates *)
Definition SITE_UNDERFLOW : N := 5.      (* u32/u64 subtraction overflow (debug build) *)
Definition SITE_RELEASE_UNWRAP : N := 6. (* fractions.get_mut(..).unwrap() in release_allocation *)
Definition SITE_RELEASE_ASSERT : N := 7. (* assert! in release_allocation *)
Definition SITE_CONCISE_ASSERT : N := 8. (* assert! in concise.rs *)
Definition SITE_AMOUNT_ASSERT : N := 9.  (* assert!(fractions < FRACTIONS_PER_UNIT) in ResourceAmount::new *)
Definition SITE_SOLVER_UNWRAP : N := 10. (* group_solver(..).unwrap() *)
Definition SITE_NEW : N := 11.           (* expect(..) in ResourceAllocator::new *)
Definition SITE_MAXBY_UNWRAP : N := 12.  (* max_by_key(..).unwrap() in claim_compact_from_groups *)

(* ------------------------------------------------------------------------------------------ *)
(** * Amounts, allocations, requests *)

Definition split (a : N) : N * N := (a / FPU, a mod FPU).
Definition mk_amount (units fr : N) : N := units * FPU + fr.

Record aidx := mkAidx { ai_index : N; ai_group : N; ai_frac : N }.          (* AllocationIndex *)
Record ralloc := mkRalloc { ra_res : N; ra_amount : N; ra_indices : list aidx }. (* ResourceAllocation *)
Definition allocation := list ralloc.                                        (* Allocation.resources *)

Inductive policy := Compact | Tight | Scatter | ForceCompact | ForceTight.
Inductive areq := Req (p : policy) (amount : N) | ReqAll.                    (* AllocationRequest *)
Record entry := mkEntry { e_res : N; e_req : areq }.                         (* ResourceAllocRequest *)
Definition request := list entry.                                            (* ResourceRequest.resources *)

Definition policy_eqb (p q : policy) : bool :=
  match p, q with
  | Compact, Compact | Tight, Tight | Scatter, Scatter | ForceCompact, ForceCompact | ForceTight, ForceTight => true
  | _, _ => false
  end.
Definition areq_eqb (a b : areq) : bool :=
  match a, b with
  | Req p x, Req q y => policy_eqb p q && (x =? y)
  | ReqAll, ReqAll => true
  | _, _ => false
  end.
Definition entry_eqb (a b : entry) : bool := (e_res a =? e_res b) && areq_eqb (e_req a) (e_req b).
Fixpoint request_eqb (a b : request) : bool :=
  match a, b with
  | [], [] => true
  | x :: a', y :: b' => entry_eqb x y && request_eqb a' b'
  | _, _ => false
  end.

Definition is_relevant_for_coupling (r : areq) : bool :=
  match r with Req Scatter _ => false | Req _ _ => true | ReqAll => false end.
Definition is_forced (r : areq) : bool :=
  match r with Req ForceCompact _ | Req ForceTight _ => true | _ => false end.
(** AllocationRequest::amount(all) *)
Definition req_amount (r : areq) (all : N) : N := match r with Req _ a => a | ReqAll => all end.

(* ------------------------------------------------------------------------------------------ *)
(** * Fraction maps *)

Definition fmap := list (N * N).

Fixpoint fget (m : fmap) (i : N) : option N :=
  match m with
  | [] => None
  | (k, v) :: m' => if k =? i then Some v else fget m' i
  end.
(** insert / overwrite *)
Fixpoint fset (m : fmap) (i v : N) : fmap :=
  match m with
  | [] => [(i, v)]
  | (k, w) :: m' => if k =? i then (k, v) :: m' else (k, w) :: fset m' i v
  end.
Fixpoint fremove (m : fmap) (i : N) : fmap :=
  match m with
  | [] => []
  | (k, w) :: m' => if k =? i then m' else (k, w) :: fremove m' i
  end.
Definition fget0 (m : fmap) (i : N) : N := match fget m i with Some v => v | None => 0 end.
(** values().max().unwrap_or(0) *)
Fixpoint fmax (m : fmap) : N :=
  match m with [] => 0 | (_, v) :: m' => N.max v (fmax m') end.

(** smallest value >= fr among the entries *)
Fixpoint cand_min (m : fmap) (fr : N) : option N :=
  match m with
  | [] => None
  | (_, v) :: m' =>
      let r := cand_min m' fr in
      if fr <=? v then match r with Some w => Some (N.min v w) | None => Some v end else r
  end.

(** ResourcePool::best_fraction_match: filter(f >= fractions).min_by_key(f) over the hash map's
    iteration order.  Which of several minimal entries wins is decided by the hash order: the
    winner is the witness [wit]; the model checks that it is a minimal fitting entry. *)
Definition best_fraction_match (m : fmap) (fr : N) (wit : option N) : res (option (N * N)) :=
  match cand_min m fr with
  | None => Ok None
  | Some mn =>
      match wit with
      | Some i =>
          match fget m i with
          | Some f => if f =? mn then Ok (Some (i, f)) else Disabled
          | None => Disabled
          end
      | None => Disabled
      end
  end.

(* ------------------------------------------------------------------------------------------ *)
(** * Pools (pool.rs) *)

Record group := mkGroup { g_idx : list N; g_fr : fmap }.

Inductive pool :=
| PEmpty
| PIndices (full : N) (g : group)
| PGroups (full : N) (gs : list group)
| PSum (full free : N).

Definition pool_full_size (p : pool) : N :=
  match p with PEmpty => 0 | PIndices f _ => f | PGroups f _ => f | PSum f _ => f end.

Definition len {A} (l : list A) : N := N.of_nat (length l).

Fixpoint nth_res {A} (l : list A) (n : nat) : res A :=
  match l, n with
  | [], _ => Panic SITE_INDEX
  | x :: _, O => Ok x
  | _ :: l', S n' => nth_res l' n'
  end.
Fixpoint set_nth {A} (l : list A) (n : nat) (x : A) : list A :=
  match l, n with
  | [], _ => []
  | _ :: l', O => x :: l'
  | y :: l', S n' => y :: set_nth l' n' x
  end.
(** bounded conversion: only called after a bounds check against a list length *)
Definition nat_of (n : N) : nat := N.to_nat n.
Definition get_at {A} (l : list A) (i : N) : res A :=
  if i <? len l then nth_res l (nat_of i) else Panic SITE_INDEX.
Definition set_at {A} (l : list A) (i : N) (x : A) : list A :=
  if i <? len l then set_nth l (nat_of i) x else l.

(** ResourcePool::take_indices: [units] times [out.push(pop().unwrap())] *)
Definition take_indices (st : list N) (gid units : N) (out : list aidx) : res (list N * list aidx) :=
  if len st <? units then Panic SITE_POP
  else
    let n := nat_of units in
    Ok (skipn n st, out ++ map (fun i => mkAidx i gid 0) (firstn n st)).

(** ResourcePool::take_fraction_index_or_split *)
Definition take_fraction_index_or_split (g : group) (fr gid : N) (wit : option N) (out : list aidx)
  : res (group * list aidx) :=
  if fr =? 0 then Ok (g, out)
  else
    do m <- best_fraction_match (g_fr g) fr wit;
    match m with
    | Some (i, f) => Ok (mkGroup (g_idx g) (fset (g_fr g) i (f - fr)), out ++ [mkAidx i gid fr])
    | None =>
        match g_idx g with
        | [] => Panic SITE_POP
        | i :: rest => Ok (mkGroup rest (fset (g_fr g) i (FPU - fr)), out ++ [mkAidx i gid fr])
        end
    end.

(** ResourcePool::try_take_fraction *)
Definition try_take_fraction (g : group) (fr gid : N) (wit : option N) (out : list aidx)
  : res (group * list aidx * bool) :=
  if fr =? 0 then Ok (g, out, false)
  else
    do m <- best_fraction_match (g_fr g) fr wit;
    match m with
    | Some (i, f) => Ok (mkGroup (g_idx g) (fset (g_fr g) i (f - fr)), out ++ [mkAidx i gid fr], true)
    | None => Ok (g, out, false)
    end.

(** ResourcePool::claim_all_from_groups: [take(group).into_iter()] - Vec order = reversed stack *)
Fixpoint claim_all_from_groups (gs : list group) (gid : N) : list group * list aidx :=
  match gs with
  | [] => ([], [])
  | g :: gs' =>
      let '(gs'', out) := claim_all_from_groups gs' (gid + 1) in
      (mkGroup [] (g_fr g) :: gs'', map (fun i => mkAidx i gid 0) (rev (g_idx g)) ++ out)
  end.

(** stable insertion sort *)
Section Sort.
  Context {A : Type} (le : A -> A -> bool).
  Fixpoint insert_sorted (x : A) (l : list A) : list A :=
    match l with
    | [] => [x]
    | y :: l' => if le x y then x :: l else y :: insert_sorted x l'
    end.
  Definition isort (l : list A) : list A := fold_right insert_sorted [] l.
End Sort.

(** key of [indices.sort_by_key(|i| (i.fractions, i.group_idx, i.index))] *)
Definition aidx_le (a b : aidx) : bool :=
  if ai_frac a <? ai_frac b then true
  else if ai_frac b <? ai_frac a then false
  else if ai_group a <? ai_group b then true
  else if ai_group b <? ai_group a then false
  else ai_index a <=? ai_index b.

Definition total_free_indices (gs : list group) : nat :=
  fold_right (fun g n => (length (g_idx g) + n)%nat) O gs.

(** the loop of ResourcePool::claim_scatter_from_groups; [sel] = group_set.
    A step either takes something or moves to the next group; the real loop has no bound, the
    model's fuel (enough for every terminating run, see [scatter_fuel]) running out = it hangs. *)
Fixpoint scatter_loop (fuel : nat) (gs : list group) (sel : option (list N)) (units fr pos : N)
  (wit : option N) (out : list aidx) : res (list group * list aidx) :=
  if (units =? 0) && (fr =? 0) then Ok (gs, out)
  else
    match fuel with
    | O => Panic SITE_HANG
    | S fuel' =>
        do gi <- match sel with Some s => get_at s pos | None => Ok pos end;
        do g <- get_at gs gi;
        let modulus := match sel with Some s => len s | None => len gs end in
        let pos' := (pos + 1) mod modulus in
        if 0 <? units then
          match g_idx g with
          | i :: rest =>
              scatter_loop fuel' (set_at gs gi (mkGroup rest (g_fr g))) sel (units - 1) fr pos' wit
                (out ++ [mkAidx i gi 0])
          | [] => scatter_loop fuel' gs sel units fr pos' wit out
          end
        else
          do m <- best_fraction_match (g_fr g) fr wit;
          match m with
          | Some (i, f) =>
              scatter_loop fuel' (set_at gs gi (mkGroup (g_idx g) (fset (g_fr g) i (f - fr)))) sel units 0 pos' wit
                (out ++ [mkAidx i gi fr])
          | None =>
              match g_idx g with
              | i :: rest =>
                  scatter_loop fuel' (set_at gs gi (mkGroup rest (fset (g_fr g) i (FPU - fr)))) sel units 0 pos' wit
                    (out ++ [mkAidx i gi fr])
              | [] => scatter_loop fuel' gs sel units fr pos' wit out
              end
          end
    end.

Definition scatter_fuel (gs : list group) (sel : option (list N)) : nat :=
  ((total_free_indices gs + 2) * (S (match sel with Some s => length s | None => length gs end)))%nat.

Definition claim_scatter_from_groups (amount : N) (gs : list group) (sel : option (list N)) (wit : option N)
  : res (list group * list aidx) :=
  let '(units, fr) := split amount in
  do r <- scatter_loop (scatter_fuel gs sel) gs sel units fr 0 wit [];
  let '(gs', out) := r in
  Ok (gs', isort aidx_le out).

(** GroupsResourcePool::group_amounts *)
Definition group_amount (g : group) : N := mk_amount (len (g_idx g)) (fmax (g_fr g)).

Definition in_sel (sel : option (list N)) (i : N) : bool :=
  match sel with None => true | Some s => existsb (N.eqb i) s end.

(** [.enumerate().filter(a >= remaining && sel).min_by_key(a)]: the FIRST minimal element *)
Fixpoint find_min_fit (amounts : list N) (i : N) (remaining : N) (sel : option (list N)) : option (N * N) :=
  match amounts with
  | [] => None
  | a :: rest =>
      let r := find_min_fit rest (i + 1) remaining sel in
      if (remaining <=? a) && in_sel sel i then
        match r with
        | Some (j, b) => if a <=? b then Some (i, a) else Some (j, b)
        | None => Some (i, a)
        end
      else r
  end.
(** [.enumerate().filter(sel).max_by_key(a)]: the LAST maximal element *)
Fixpoint find_max (amounts : list N) (i : N) (sel : option (list N)) : option (N * N) :=
  match amounts with
  | [] => None
  | a :: rest =>
      let r := find_max rest (i + 1) sel in
      if in_sel sel i then
        match r with
        | Some (j, b) => if b <? a then Some (i, a) else Some (j, b)
        | None => Some (i, a)
        end
      else r
  end.

Fixpoint swap_to_last {A} (l : list A) (k : nat) : list A :=
  (* indices.swap(k, len-1) *)
  match l, k with
  | [], _ => []
  | x :: l', O =>
      match rev l' with
      | [] => [x]
      | y :: r => y :: rev r ++ [x]
      end
  | x :: l', S k' => x :: swap_to_last l' k'
  end.

(** the loop of ResourcePool::claim_compact_from_groups *)
Fixpoint compact_loop (fuel : nat) (gs : list group) (amounts : list N) (sel : option (list N))
  (remaining : N) (wit : option N) (out : list aidx) (fraction_idx : option nat)
  : res (list group * list aidx * option nat) :=
  match fuel with
  | O => Panic SITE_HANG
  | S fuel' =>
      match find_min_fit amounts 0 remaining sel with
      | Some (gi, _) =>
          let '(units, fr) := split remaining in
          do g <- get_at gs gi;
          do r <- take_indices (g_idx g) gi units out;
          let '(st, out1) := r in
          do r2 <- take_fraction_index_or_split (mkGroup st (g_fr g)) fr gi wit out1;
          let '(g2, out2) := r2 in
          Ok (set_at gs gi g2, out2, fraction_idx)
      | None =>
          match find_max amounts 0 sel with
          | None => Panic SITE_MAXBY_UNWRAP
          | Some (gi, _) =>
              let amounts' := set_at amounts gi 0 in
              let '(units, fr) := split remaining in
              do g <- get_at gs gi;
              let size := len (g_idx g) in
              if units <? size then Panic SITE_UNDERFLOW
              else
                let units' := units - size in
                do r <- take_indices (g_idx g) gi size out;
                let '(st, out1) := r in
                do r2 <- try_take_fraction (mkGroup st (g_fr g)) fr gi wit out1;
                let '(g2, out2, took) := r2 in
                let fraction_idx' := if took then Some (length out2 - 1)%nat else fraction_idx in
                let fr' := if took then 0 else fr in
                compact_loop fuel' (set_at gs gi g2) amounts' sel (mk_amount units' fr') wit out2 fraction_idx'
          end
      end
  end.

Definition claim_compact_from_groups (amount : N) (gs : list group) (sel : option (list N)) (wit : option N)
  : res (list group * list aidx) :=
  do r <- compact_loop (length gs + 2) gs (map group_amount gs) sel amount wit [] None;
  let '(gs', out, fidx) := r in
  Ok (gs', match fidx with Some k => swap_to_last out k | None => out end).

(** ResourcePool::claim_resources_with_group_mask *)
Definition claim_with_group_mask (p : pool) (rid : N) (rq : areq) (mask : list N) (wit : option N)
  : res (pool * ralloc) :=
  match p with
  | PGroups full gs =>
      match rq with
      | Req Compact a | Req ForceCompact a =>
          do r <- claim_scatter_from_groups a gs (Some mask) wit;
          let '(gs', out) := r in Ok (PGroups full gs', mkRalloc rid a out)
      | Req Tight a | Req ForceTight a =>
          do r <- claim_compact_from_groups a gs (Some mask) wit;
          let '(gs', out) := r in Ok (PGroups full gs', mkRalloc rid a out)
      | Req Scatter _ | ReqAll => Panic SITE_UNREACHABLE
      end
  | _ => Panic SITE_UNREACHABLE   (* as_groups_mut *)
  end.

(** ResourcePool::claim_resources *)
Definition pool_claim (p : pool) (rid : N) (rq : areq) (wit : option N) : res (pool * ralloc) :=
  match p with
  | PEmpty => Panic SITE_UNREACHABLE
  | PIndices full g =>
      let amount := req_amount rq full in
      let '(units, fr) := split amount in
      do r <- take_indices (g_idx g) 0 units [];
      let '(st, out1) := r in
      do r2 <- take_fraction_index_or_split (mkGroup st (g_fr g)) fr 0 wit out1;
      let '(g2, out2) := r2 in
      Ok (PIndices full g2, mkRalloc rid amount out2)
  | PGroups full gs =>
      match rq with
      | Req Scatter a =>
          do r <- claim_scatter_from_groups a gs None wit;
          let '(gs', out) := r in Ok (PGroups full gs', mkRalloc rid a out)
      | ReqAll =>
          let '(gs', out) := claim_all_from_groups gs 0 in
          Ok (PGroups full gs', mkRalloc rid full out)
      | Req _ _ => Panic SITE_UNREACHABLE
      end
  | PSum full free =>
      let amount := req_amount rq full in
      if free <? amount then Panic SITE_UNDERFLOW
      else Ok (PSum full (free - amount), mkRalloc rid amount [])
  end.

(** one iteration of the release loops: return one AllocationIndex to a group *)
Definition release_index (g : group) (ix : aidx) : res group :=
  if ai_frac ix =? 0 then Ok (mkGroup (ai_index ix :: g_idx g) (g_fr g))
  else
    match fget (g_fr g) (ai_index ix) with
    | None => Panic SITE_RELEASE_UNWRAP
    | Some f =>
        let f' := f + ai_frac ix in
        if f' =? FPU then Ok (mkGroup (ai_index ix :: g_idx g) (fremove (g_fr g) (ai_index ix)))
        else Ok (mkGroup (g_idx g) (fset (g_fr g) (ai_index ix) f'))
    end.

Fixpoint release_indices_single (g : group) (ixs : list aidx) : res group :=
  (* [ixs] already reversed *)
  match ixs with
  | [] => Ok g
  | ix :: rest =>
      if negb (ai_group ix =? 0) then Panic SITE_RELEASE_ASSERT
      else do g' <- release_index g ix; release_indices_single g' rest
  end.

Fixpoint release_indices_groups (gs : list group) (ixs : list aidx) : res (list group) :=
  match ixs with
  | [] => Ok gs
  | ix :: rest =>
      do g <- get_at gs (ai_group ix);
      do g' <- release_index g ix;
      release_indices_groups (set_at gs (ai_group ix) g') rest
  end.

(** ResourcePool::release_allocation (without the debug-only validate()) *)
Definition pool_release (p : pool) (ra : ralloc) : res pool :=
  match p with
  | PEmpty => Panic SITE_UNREACHABLE
  | PIndices full g =>
      do g' <- release_indices_single g (rev (ra_indices ra)); Ok (PIndices full g')
  | PSum full free =>
      let free' := free + ra_amount ra in
      if full <? free' then Panic SITE_RELEASE_ASSERT
      else if negb (len (ra_indices ra) =? 0) then Panic SITE_RELEASE_ASSERT
      else Ok (PSum full free')
  | PGroups full gs =>
      do gs' <- release_indices_groups gs (rev (ra_indices ra)); Ok (PGroups full gs')
  end.

(* ------------------------------------------------------------------------------------------ *)
(** * Validation of a claim ([claim_ok])

    The allocation a claim returns (which indices, which groups, which fractional index) is checked
    against the pool before / after: replaying the returned AllocationIndex list as elementary
    "take one index" steps on the pool before the claim must give exactly the pool after it, whole
    indices come first and at most one fractional index last, and the amounts add up.  A claim the
    check rejects makes the step [Disabled]; the theorems hold for every accepted claim.
    The check is PROVED transparent on well-formed pools (HQ.Alloc.CompleteTight, HQ.Alloc.AllFree:
    whatever take_indices, take_fraction_index_or_split, the scatter loop + sort, the compact loop + swap and
    claim_all_from_groups compute passes it), so it never rejects a step of the modelled code; it documents
    what every claim guarantees and is the interface the invariant proofs use. *)

Fixpoint removeN (x : N) (l : list N) : list N :=
  match l with [] => [] | y :: l' => if y =? x then l' else y :: removeN x l' end.

(** taking one AllocationIndex out of a group: a whole free index, a fraction of a partly used
    index that has enough left, or a fraction split off a whole free index *)
Definition take1 (g : group) (ix : aidx) : option group :=
  let i := ai_index ix in
  if ai_frac ix =? 0 then
    if existsb (N.eqb i) (g_idx g) then Some (mkGroup (removeN i (g_idx g)) (g_fr g)) else None
  else
    match fget (g_fr g) i with
    | Some f => if ai_frac ix <=? f then Some (mkGroup (g_idx g) (fset (g_fr g) i (f - ai_frac ix))) else None
    | None =>
        if existsb (N.eqb i) (g_idx g) && (ai_frac ix <? FPU)
        then Some (mkGroup (removeN i (g_idx g)) (fset (g_fr g) i (FPU - ai_frac ix))) else None
    end.

Fixpoint take_all (gs : list group) (out : list aidx) : option (list group) :=
  match out with
  | [] => Some gs
  | ix :: rest =>
      match get_at gs (ai_group ix) with
      | Ok g => match take1 g ix with
                | Some g' => take_all (set_at gs (ai_group ix) g') rest
                | None => None
                end
      | _ => None
      end
  end.

Fixpoint list_eqb {A} (eqb : A -> A -> bool) (a b : list A) : bool :=
  match a, b with
  | [], [] => true
  | x :: a', y :: b' => eqb x y && list_eqb eqb a' b'
  | _, _ => false
  end.
Definition pair_eqb (a b : N * N) : bool := (fst a =? fst b) && (snd a =? snd b).
Definition group_eqb (a b : group) : bool :=
  list_eqb N.eqb (g_idx a) (g_idx b) && list_eqb pair_eqb (g_fr a) (g_fr b).

(** whole indices first, at most one fractional index, at the end *)
Fixpoint shape_ok (ixs : list aidx) : bool :=
  match ixs with
  | [] => true
  | [ix] => ai_frac ix <? FPU
  | ix :: rest => (ai_frac ix =? 0) && shape_ok rest
  end.

Definition held_ix (ix : aidx) : N := if ai_frac ix =? 0 then FPU else ai_frac ix.
Definition ra_total (ra : ralloc) : N := fold_right N.add 0 (map held_ix (ra_indices ra)).

Definition pool_groups (p : pool) : list group :=
  match p with PIndices _ g => [g] | PGroups _ gs => gs | _ => [] end.

Definition claim_ok (p p' : pool) (rid : N) (rq : areq) (ra : ralloc) : bool :=
  (ra_res ra =? rid) && (ra_amount ra =? req_amount rq (pool_full_size p))
  && match p, p' with
     | PSum full free, PSum full' free' =>
         (full =? full') && (ra_amount ra <=? free) && (free' =? free - ra_amount ra)
         && match ra_indices ra with [] => true | _ => false end
     | PIndices full _, PIndices full' _ | PGroups full _, PGroups full' _ =>
         (full =? full') && shape_ok (ra_indices ra) && (ra_total ra =? ra_amount ra)
         && match take_all (pool_groups p) (ra_indices ra) with
            | Some gs' => list_eqb group_eqb gs' (pool_groups p')
            | None => false
            end
     | _, _ => false
     end.

(** ResourcePool::claim_resources / claim_resources_with_group_mask followed by the check *)
Definition checked {A} (r : res (pool * ralloc)) (p : pool) (rid : N) (rq : areq) (k : pool -> ralloc -> res A) : res A :=
  do x <- r;
  let '(p', ra) := x in
  if claim_ok p p' rid rq ra then k p' ra else Disabled.

(* ------------------------------------------------------------------------------------------ *)
(** * Concise mirror (concise.rs) *)

Record cgroup := mkCgroup { c_units : N; c_fr : fmap }.
Definition cstate := list cgroup.

(** ResourcePool::concise_state *)
Definition concise_state (p : pool) : cstate :=
  match p with
  | PEmpty => []
  | PIndices _ g => [mkCgroup (len (g_idx g)) (g_fr g)]
  | PSum _ free =>
      let '(units, fr) := split free in
      [mkCgroup units (if 0 <? fr then [(0, fr)] else [])]
  | PGroups _ gs => map (fun g => mkCgroup (len (g_idx g)) (g_fr g)) gs
  end.

Definition remove_fractions (s : cstate) (gi idx fr : N) : res cstate :=
  do g <- get_at s gi;
  let old := fget0 (c_fr g) idx in     (* entry(idx).or_insert(0) *)
  if old <? fr then
    if c_units g =? 0 then Panic SITE_CONCISE_ASSERT
    else Ok (set_at s gi (mkCgroup (c_units g - 1) (fset (c_fr g) idx (FPU + old - fr))))
  else Ok (set_at s gi (mkCgroup (c_units g) (fset (c_fr g) idx (old - fr)))).

Definition add_fractions (s : cstate) (gi idx fr : N) : res cstate :=
  do g <- get_at s gi;
  let old := fget0 (c_fr g) idx + fr in
  if FPU <=? old then
    if FPU <=? old - FPU then Panic SITE_CONCISE_ASSERT
    else Ok (set_at s gi (mkCgroup (c_units g + 1) (fset (c_fr g) idx (old - FPU))))
  else Ok (set_at s gi (mkCgroup (c_units g) (fset (c_fr g) idx old))).

(** the [for idx in indices.iter().rev() { if idx.fractions == 0 {break} ..}] loops ([ixs] reversed) *)
Fixpoint fr_loop_single (f : cstate -> N -> N -> N -> res cstate) (s : cstate) (ixs : list aidx) : res cstate :=
  match ixs with
  | [] => Ok s
  | ix :: rest =>
      if ai_frac ix =? 0 then Ok s
      else do s' <- f s 0 (ai_index ix) (ai_frac ix); fr_loop_single f s' rest
  end.

Fixpoint remove_loop_groups (s : cstate) (ixs : list aidx) : res cstate :=
  match ixs with
  | [] => Ok s
  | ix :: rest =>
      if ai_frac ix =? 0 then
        do g <- get_at s (ai_group ix);
        if c_units g =? 0 then Panic SITE_CONCISE_ASSERT
        else remove_loop_groups (set_at s (ai_group ix) (mkCgroup (c_units g - 1) (c_fr g))) rest
      else
        do s' <- remove_fractions s (ai_group ix) (ai_index ix) (ai_frac ix);
        remove_loop_groups s' rest
  end.

Fixpoint add_loop_groups (s : cstate) (ixs : list aidx) : res cstate :=
  match ixs with
  | [] => Ok s
  | ix :: rest =>
      if ai_frac ix =? 0 then
        do g <- get_at s (ai_group ix);
        add_loop_groups (set_at s (ai_group ix) (mkCgroup (c_units g + 1) (c_fr g))) rest
      else
        do s' <- add_fractions s (ai_group ix) (ai_index ix) (ai_frac ix);
        add_loop_groups s' rest
  end.

(** ConciseResourceState::remove *)
Definition cs_remove (s : cstate) (ra : ralloc) : res cstate :=
  match s with
  | [g] =>
      let '(units, fr) := split (ra_amount ra) in
      if c_units g <? units then Panic SITE_CONCISE_ASSERT
      else
        let s1 := [mkCgroup (c_units g - units) (c_fr g)] in
        if 0 <? fr then
          match ra_indices ra with
          | [] => remove_fractions s1 0 0 fr
          | _ => fr_loop_single remove_fractions s1 (rev (ra_indices ra))
          end
        else Ok s1
  | _ => remove_loop_groups s (ra_indices ra)
  end.

(** ConciseResourceState::add *)
Definition cs_add (s : cstate) (ra : ralloc) : res cstate :=
  match s with
  | [g] =>
      let '(units, fr) := split (ra_amount ra) in
      let s1 := [mkCgroup (c_units g + units) (c_fr g)] in
      if 0 <? fr then
        match ra_indices ra with
        | [] => add_fractions s1 0 0 fr
        | _ => fr_loop_single add_fractions s1 (rev (ra_indices ra))
        end
      else Ok s1
  | _ => add_loop_groups s (ra_indices ra)
  end.

Definition cs_units_sum (s : cstate) : N := fold_right (fun g n => c_units g + n) 0 s.
Definition cs_max_fraction (s : cstate) : N := fold_right (fun g n => N.max (fmax (c_fr g)) n) 0 s.

(** ConciseResourceState::amount_max_alloc (ResourceAmount::new asserts fractions < FPU) *)
Definition amount_max_alloc (s : cstate) : res N :=
  let f := cs_max_fraction s in
  if f <? FPU then Ok (mk_amount (cs_units_sum s) f) else Panic SITE_AMOUNT_ASSERT.

(** amount_max_per_group *)
Definition amount_max_per_group (s : cstate) : list (N * N) := map (fun g => (c_units g, fmax (c_fr g))) s.

(** ConciseFreeResources::{add,remove}: [self.resources[ra.resource_id]] *)
Fixpoint cf_apply (f : cstate -> ralloc -> res cstate) (free : list cstate) (a : allocation) : res (list cstate) :=
  match a with
  | [] => Ok free
  | ra :: rest =>
      do s <- get_at free (ra_res ra);
      do s' <- f s ra;
      cf_apply f (set_at free (ra_res ra) s') rest
  end.
Definition cf_remove := cf_apply cs_remove.
Definition cf_add := cf_apply cs_add.

(* ------------------------------------------------------------------------------------------ *)
(** * Group solver (groups.rs) *)

(** CouplingWeightItem: resource1, group1, resource2, group2, weight *)
Record cweight := mkCweight { cw_r1 : N; cw_g1 : N; cw_r2 : N; cw_g2 : N; cw_w : N }.

Definition mask := list N.

(** The per-entry part of the MILP: per group (u, f) = (free units, biggest free fraction). *)
Definition mask_sum (per : list (N * N)) (m : mask) (coef : N * N -> N) : N :=
  fold_right (fun gi acc => match nth_error per (nat_of gi) with Some uf => coef uf + acc | None => acc end) 0 m.

Definition need_second_check (per : list (N * N)) (fr : N) : bool := existsb (fun uf => fr <=? snd uf) per.

(** the constraint rows group_solver adds for one entry, evaluated on a 0/1 assignment = mask *)
Definition mask_feasible (per : list (N * N)) (units fr : N) (m : mask) : bool :=
  if fr =? 0 then units <=? mask_sum per m fst
  else
    (units + 1 <=? mask_sum per m (fun uf => if fr <=? snd uf then fst uf + 1 else fst uf))
    && (if (0 <? units) && need_second_check per fr then units <=? mask_sum per m fst else true).

Fixpoint strictly_increasing_below (m : mask) (lo : N) (n : N) : bool :=
  (* the solver's answer is produced by enumerate().filter_map: ascending group ids, in range *)
  match m with
  | [] => true
  | g :: m' => (lo <=? g) && (g <? n) && strictly_increasing_below m' (g + 1) n
  end.

(** objective scaled by [OBJ_SCALE] = 10 * ALLOC_UNIT_DIV * FPU, so that every coefficient is an
    integer:  -(1024 + u/32)  |->  -(1024*10*32*FPU + 10*u*FPU);
              -1024 + f*16/FPU |->  -(1024*10*32*FPU) + f*16*10*32;    w |-> w*10*32*FPU;
              the slack 0.1 of the strict-policy test |-> ALLOC_SLACK_TENTHS*32*FPU. *)
Definition OBJ_SCALE : Z := Z.of_N (10 * ALLOC_UNIT_DIV * FPU).
Definition GROUP_COST : Z := Z.of_N ALLOC_GROUP_WEIGHT * OBJ_SCALE.
Definition GROUP_COST_FRAC : Z := Z.of_N ALLOC_GROUP_WEIGHT_FRAC * OBJ_SCALE.
Definition GROUP_COST_PLAIN : Z := Z.of_N ALLOC_GROUP_WEIGHT_PLAIN * OBJ_SCALE.
Definition SLACK : Z := Z.of_N (ALLOC_SLACK_TENTHS * ALLOC_UNIT_DIV * FPU).

(** [tie] = the [tie_breaking] flag of group_solver (factor 1.0 / 0.0 on the tie-breaking terms) *)
Definition var_weight (tie : bool) (fr : N) (uf : N * N) : Z :=
  if fr =? 0 then (- GROUP_COST - (if tie then Z.of_N (10 * fst uf * FPU) else 0))%Z
  else if fr <=? snd uf then (- GROUP_COST_FRAC + (if tie then Z.of_N (snd uf * ALLOC_FRAC_MUL * 10 * ALLOC_UNIT_DIV) else 0))%Z
  else (- GROUP_COST_PLAIN)%Z.

Definition mask_objective (tie : bool) (per : list (N * N)) (fr : N) (m : mask) : Z :=
  fold_right (fun gi acc => match nth_error per (nat_of gi) with Some uf => (var_weight tie fr uf + acc)%Z | None => acc end) 0%Z m.

Fixpoint position {A} (f : A -> bool) (l : list A) : option nat :=
  match l with
  | [] => None
  | x :: l' => if f x then Some O else match position f l' with Some n => Some (S n) | None => None end
  end.

Definition mask_has (masks : list mask) (r : nat) (g : N) : bool :=
  match nth_error masks r with Some m => existsb (N.eqb g) m | None => false end.

(** weights: the auxiliary variable u <= v1, u <= v2, 0 <= u <= 1 with weight w >= 0 is 1 in an
    optimal solution iff both groups are selected; [ngroups] = number of variables per entry
    ([vars[r][g]] panics when g is out of range). *)
Fixpoint weights_objective (entries : list entry) (ngroups : list N) (weights : list cweight) (masks : list mask)
  : res Z :=
  match weights with
  | [] => Ok 0%Z
  | w :: rest =>
      do acc <- weights_objective entries ngroups rest masks;
      match position (fun e => e_res e =? cw_r1 w) entries, position (fun e => e_res e =? cw_r2 w) entries with
      | Some r1, Some r2 =>
          if (cw_g1 w <? nth r1 ngroups 0) && (cw_g2 w <? nth r2 ngroups 0) then
            Ok (if mask_has masks r1 (cw_g1 w) && mask_has masks r2 (cw_g2 w)
                then (Z.of_N (cw_w w) * OBJ_SCALE + acc)%Z else acc)
          else Panic SITE_INDEX
      | _, _ => Ok acc
      end
  end.

(** [amount_or_none_if_all().unwrap()] and [free.get(resource_id)] for the coupled entries *)
Fixpoint solver_rows (free : list cstate) (entries : list entry) : res (list (list (N * N) * N * N)) :=
  match entries with
  | [] => Ok []
  | e :: rest =>
      match e_req e with
      | ReqAll => Panic SITE_SOLVER_UNWRAP
      | Req _ a =>
          do s <- get_at free (e_res e);
          do rows <- solver_rows free rest;
          let '(units, fr) := split a in
          Ok ((amount_max_per_group s, units, fr) :: rows)
      end
  end.

Fixpoint masks_feasible (rows : list (list (N * N) * N * N)) (masks : list mask) : bool :=
  match rows, masks with
  | [], [] => true
  | (per, units, fr) :: rows', m :: masks' =>
      strictly_increasing_below m 0 (len per) && mask_feasible per units fr m && masks_feasible rows' masks'
  | _, _ => false
  end.

Fixpoint masks_objective (tie : bool) (rows : list (list (N * N) * N * N)) (masks : list mask) : Z :=
  match rows, masks with
  | (per, _, fr) :: rows', m :: masks' => (mask_objective tie per fr m + masks_objective tie rows' masks')%Z
  | _, _ => 0%Z
  end.

Fixpoint seqN (start : N) (n : nat) : list N :=
  match n with O => [] | S n' => start :: seqN (start + 1) n' end.
Definition full_mask (per : list (N * N)) : mask := seqN 0 (length per).

(** group_solver with the solver's answer as a checked witness.
    [ans = None]: the solver reports "no solution" - accepted only if even selecting every group
    violates a row (feasibility is monotone in the mask, lemma [mask_feasible_mono]).
    [ans = Some masks]: accepted iff every row holds; the objective value is recomputed. *)
Definition group_solver (free : list cstate) (entries : list entry) (weights : list cweight) (tie : bool)
  (ans : option (list mask)) : res (option (list mask * Z)) :=
  do rows <- solver_rows free entries;
  let ngroups := map (fun r => len (fst (fst r))) rows in
  do _ <- weights_objective entries ngroups weights [];
  match ans with
  | None =>
      if masks_feasible rows (map (fun r => full_mask (fst (fst r))) rows) then Disabled else Ok None
  | Some masks =>
      if masks_feasible rows masks then
        do wobj <- weights_objective entries ngroups weights masks;
        Ok (Some (masks, (masks_objective tie rows masks + wobj)%Z))
      else Disabled
  end.

(* ------------------------------------------------------------------------------------------ *)
(** * Allocator (allocator.rs) *)

Record allocator := mkAllocator {
  a_pools : list pool;
  a_free : list cstate;                 (* free_resources *)
  a_weights : list cweight;             (* static_info.coupling_weights *)
  a_yard : list (request * Z);          (* static_info.optional_objectives (RefCell cache) *)
  a_all : list cstate;                  (* static_info.all_resources *)
}.

(** witnesses of one try_allocate / is_enabled call *)
Record witness := mkWitness {
  w_mask : option (list mask);   (* claim_resources: group_solver's answer on the current free resources (tie-breaking on) *)
  w_adm : option (list mask);    (* has_resources: answer on the current free resources (tie-breaking off) *)
  w_yard : option (list mask);   (* has_resources: answer on all_resources (tie-breaking off; only consulted on a cache miss) *)
  w_frac : list (N * N);         (* resource id -> index that won best_fraction_match *)
}.

Definition is_groups (p : pool) : bool := match p with PGroups _ _ => true | _ => false end.

(** the [.all(..)] closure over the entries of has_resources_for_request;
    returns (all passed, coupling entries pushed so far) *)
Fixpoint hr_entries (pools : list pool) (free : list cstate) (entries : list entry) (coupling : list entry)
  : res (bool * list entry) :=
  match entries with
  | [] => Ok (true, coupling)
  | e :: rest =>
      if len pools <=? e_res e then Ok (false, coupling)
      else
        do p <- get_at pools (e_res e);
        let coupling' := if is_groups p && is_relevant_for_coupling (e_req e) then coupling ++ [e] else coupling in
        do s <- get_at free (e_res e);
        do max_alloc <- amount_max_alloc s;
        let ok := match e_req e with
                  | Req _ a => a <=? max_alloc
                  | ReqAll => max_alloc =? pool_full_size p
                  end in
        if ok then hr_entries pools free rest coupling' else Ok (false, coupling')
  end.

Fixpoint yard_lookup (c : list (request * Z)) (rq : request) : option Z :=
  match c with
  | [] => None
  | (k, v) :: c' => if request_eqb k rq then Some v else yard_lookup c' rq
  end.

(** ResourceAllocator::has_resources_for_request; also returns the (possibly extended) cache *)
Definition has_resources (a : allocator) (rq : request) (w : witness) : res (bool * list (request * Z)) :=
  do r <- hr_entries (a_pools a) (a_free a) rq [];
  let '(ok, coupling) := r in
  if negb ok then Ok (false, a_yard a)
  else if forallb (fun e => negb (is_forced (e_req e))) coupling then Ok (true, a_yard a)
  else
    do ans <- group_solver (a_free a) coupling (a_weights a) false (w_adm w);
    match ans with
    | None => Ok (false, a_yard a)
    | Some (_, objective_value) =>
        match yard_lookup (a_yard a) rq with
        | Some c => Ok (Z.leb c objective_value, a_yard a)
        | None =>
            do ans2 <- group_solver (a_all a) coupling (a_weights a) false (w_yard w);
            match ans2 with
            | None => Panic SITE_SOLVER_UNWRAP
            | Some (_, cost) =>
                let c := (cost - SLACK)%Z in
                Ok (Z.leb c objective_value, (rq, c) :: a_yard a)
            end
        end
    end.

Definition frac_wit (w : witness) (rid : N) : option N := fget (w_frac w) rid.

(** first loop of claim_resources: non-coupled entries are claimed at once *)
Fixpoint claim_direct (pools : list pool) (entries : list entry) (w : witness) (acc : allocation) (coupling : list entry)
  : res (list pool * allocation * list entry) :=
  match entries with
  | [] => Ok (pools, acc, coupling)
  | e :: rest =>
      do p <- match get_at pools (e_res e) with Ok p => Ok p | _ => Panic SITE_INDEX end;  (* get_mut(..).unwrap() *)
      if is_groups p && is_relevant_for_coupling (e_req e) then claim_direct pools rest w acc (coupling ++ [e])
      else
        checked (pool_claim p (e_res e) (e_req e) (frac_wit w (e_res e))) p (e_res e) (e_req e)
          (fun p' ra => claim_direct (set_at pools (e_res e) p') rest w (acc ++ [ra]) coupling)
  end.

(** second loop: [coupling.into_iter().zip(groups)] *)
Fixpoint claim_coupled (pools : list pool) (coupling : list entry) (masks : list mask) (w : witness) (acc : allocation)
  : res (list pool * allocation) :=
  match coupling, masks with
  | e :: rest, m :: masks' =>
      do p <- get_at pools (e_res e);
      checked (claim_with_group_mask p (e_res e) (e_req e) m (frac_wit w (e_res e))) p (e_res e) (e_req e)
        (fun p' ra => claim_coupled (set_at pools (e_res e) p') rest masks' w (acc ++ [ra]))
  | _, _ => Ok (pools, acc)
  end.

Definition ralloc_le (a b : ralloc) : bool := ra_res a <=? ra_res b.

(** ResourceAllocator::claim_resources *)
Definition claim_resources (a : allocator) (rq : request) (w : witness) : res (list pool * allocation) :=
  do r <- claim_direct (a_pools a) rq w [] [];
  let '(pools, acc, coupling) := r in
  match coupling with
  | [] => Ok (pools, acc)
  | _ =>
      do ans <- group_solver (a_free a) coupling (a_weights a) true (w_mask w);
      match ans with
      | None => Panic SITE_SOLVER_UNWRAP
      | Some (masks, _) =>
          do r2 <- claim_coupled pools coupling masks w acc;
          let '(pools', acc') := r2 in
          Ok (pools', isort ralloc_le acc')     (* normalize_allocation *)
      end
  end.

(** ResourceAllocator::try_allocate *)
Definition try_allocate (a : allocator) (rq : request) (w : witness) : res (allocator * option allocation) :=
  do h <- has_resources a rq w;
  let '(ok, yard) := h in
  let a1 := mkAllocator (a_pools a) (a_free a) (a_weights a) yard (a_all a) in
  if negb ok then Ok (a1, None)
  else
    do r <- claim_resources a1 rq w;
    let '(pools, al) := r in
    do free <- cf_remove (a_free a) al;
    Ok (mkAllocator pools free (a_weights a) yard (a_all a), Some al).

(** ResourceAllocator::is_enabled *)
Definition is_enabled (a : allocator) (rq : request) (w : witness) : res (allocator * bool) :=
  do h <- has_resources a rq w;
  let '(ok, yard) := h in
  Ok (mkAllocator (a_pools a) (a_free a) (a_weights a) yard (a_all a), ok).

Fixpoint release_helper (pools : list pool) (al : allocation) : res (list pool) :=
  match al with
  | [] => Ok pools
  | ra :: rest =>
      do p <- get_at pools (ra_res ra);
      do p' <- pool_release p ra;
      release_helper (set_at pools (ra_res ra) p') rest
  end.

(** ResourceAllocator::release_allocation *)
Definition release_allocation (a : allocator) (al : allocation) : res allocator :=
  do free <- cf_add (a_free a) al;
  do pools <- release_helper (a_pools a) al;
  Ok (mkAllocator pools free (a_weights a) (a_yard a) (a_all a)).

(* ------------------------------------------------------------------------------------------ *)
(** * Descriptor and ResourceAllocator::new *)

(** labels are abstracted to numbers (the harness uses the strings "L<n>"); the model covers
    validated descriptors: labels of one resource pairwise distinct (ResourceDescriptor::validate) *)
Inductive kind :=
| KList (labels : list N)
| KRange (s e : N)
| KGroups (groups : list (list N))
| KSum (size : N).

Record desc := mkDesc {
  d_nnames : N;                               (* size of the ResourceIdMap *)
  d_items : list (N * kind);                  (* (resource id, kind) in descriptor order *)
  d_coupling : list (N * N * N * N * N);      (* resource1_idx, group1, resource2_idx, group2, weight *)
}.

Fixpoint nodupb (l : list N) : bool :=
  match l with [] => true | x :: l' => negb (existsb (N.eqb x) l') && nodupb l' end.

Fixpoint groups_from (sizes : list nat) (start : N) : list group :=
  match sizes with
  | [] => []
  | n :: rest => mkGroup (rev (seqN start n)) [] :: groups_from rest (start + N.of_nat n)
  end.

(** ResourcePool::new; [None] = descriptor outside the modelled domain (labels not distinct) *)
Definition pool_new (k : kind) : option pool :=
  match k with
  | KList labels =>
      if nodupb labels then Some (PIndices (mk_amount (len labels) 0) (mkGroup (rev (seqN 0 (length labels))) []))
      else None
  | KGroups groups =>
      if nodupb (concat groups) then
        Some (PGroups (mk_amount (len (concat groups)) 0) (groups_from (map (@length N) groups) 0))
      else None
  | KRange s e =>
      let n := if e <? s then O else nat_of (e + 1 - s) in
      Some (PIndices (mk_amount (N.of_nat n) 0) (mkGroup (rev (seqN s n)) []))
  | KSum size => Some (PSum size size)
  end.

Fixpoint max_rid (items : list (N * kind)) : option N :=
  match items with
  | [] => None
  | (r, _) :: rest => match max_rid rest with Some m => Some (N.max r m) | None => Some r end
  end.

Fixpoint fill_pools (pools : list pool) (items : list (N * kind)) : res (list pool) :=
  match items with
  | [] => Ok pools
  | (r, k) :: rest =>
      match pool_new k with
      | None => Disabled
      | Some p => fill_pools (set_at pools r p) rest
      end
  end.

Fixpoint new_weights (items : list (N * kind)) (c : list (N * N * N * N * N)) : res (list cweight) :=
  match c with
  | [] => Ok []
  | (r1, g1, r2, g2, w) :: rest =>
      do a <- get_at items r1;
      do b <- get_at items r2;
      do ws <- new_weights items rest;
      Ok (mkCweight (fst a) g1 (fst b) g2 w :: ws)
  end.

(** ResourceAllocator::new *)
Definition allocator_new (d : desc) : res allocator :=
  if existsb (fun it => d_nnames d <=? fst it) (d_items d) then Panic SITE_NEW   (* unknown resource name *)
  else
    match max_rid (d_items d) with
    | None => Panic SITE_NEW                                                      (* at least one resource *)
    | Some mx =>
        do pools <- fill_pools (repeat PEmpty (S (nat_of mx))) (d_items d);
        let free := map concise_state pools in
        do ws <- new_weights (d_items d) (d_coupling d);
        Ok (mkAllocator pools free ws [] free)
    end.

(** ResourceLabelMap::get_label: (true, n) = the label "L<n>" of the descriptor, (false, i) = the index itself *)
Fixpoint label_of (items : list (N * kind)) (rid idx : N) : bool * N :=
  match items with
  | [] => (false, idx)
  | (r, k) :: rest =>
      (* a later descriptor item with the same resource id overwrites the map entry *)
      let later := label_of rest rid idx in
      if existsb (fun it => fst it =? rid) rest then later
      else if r =? rid then
        match k with
        | KList labels => match nth_error labels (nat_of idx) with Some l => (true, l) | None => (false, idx) end
        | KGroups groups => match nth_error (concat groups) (nat_of idx) with Some l => (true, l) | None => (false, idx) end
        | _ => (false, idx)
        end
      else later
  end.

(* ------------------------------------------------------------------------------------------ *)
(** * The worker-side system: allocator + live allocations (what running tasks hold) *)

Record sys := mkSys { s_alloc : allocator; s_live : list allocation }.

Inductive op :=
| OAlloc (rq : request) (w : witness)     (* try_allocate; on success the allocation becomes live *)
| ORelease (k : N)                        (* release_allocation of the k-th live allocation *)
| OEnabled (rq : request) (w : witness).  (* is_enabled *)

Inductive out :=
| OutGrant (a : allocation)
| OutNone
| OutReleased
| OutEnabled (b : bool).

Fixpoint remove_nth {A} (l : list A) (n : nat) : list A :=
  match l, n with
  | [], _ => []
  | _ :: l', O => l'
  | x :: l', S n' => x :: remove_nth l' n'
  end.

Definition step (s : sys) (o : op) : res (sys * out) :=
  match o with
  | OAlloc rq w =>
      do r <- try_allocate (s_alloc s) rq w;
      match r with
      | (a', Some al) => Ok (mkSys a' (s_live s ++ [al]), OutGrant al)
      | (a', None) => Ok (mkSys a' (s_live s), OutNone)
      end
  | ORelease k =>
      if k <? len (s_live s) then
        match nth_error (s_live s) (nat_of k) with
        | Some al =>
            do a' <- release_allocation (s_alloc s) al;
            Ok (mkSys a' (remove_nth (s_live s) (nat_of k)), OutReleased)
        | None => Disabled
        end
      else Disabled
  | OEnabled rq w =>
      do r <- is_enabled (s_alloc s) rq w;
      Ok (mkSys (fst r) (s_live s), OutEnabled (snd r))
  end.

Fixpoint run (s : sys) (ops : list op) : res sys :=
  match ops with
  | [] => Ok s
  | o :: rest => do r <- step s o; run (fst r) rest
  end.

Definition init (d : desc) : res sys := do a <- allocator_new d; Ok (mkSys a []).
