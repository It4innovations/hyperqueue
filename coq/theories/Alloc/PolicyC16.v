(** C16 - the statements proved in Alloc/Policy*.v, collected (only [exact]); re-exported by properties/C16.v.

    Open items of tools/props/C16.json addressed:
    - C16_claim_follows_policy_full: CLOSED (C16_claim_follows_policy and the four per-claim theorems; they hold for
      every pool state, no invariant is needed; the only hypotheses are pairwise distinct resource ids in the
      request and - from the solver's acceptance check - duplicate-free group selections).
    - C16_admission_all_and_strict: `all` CLOSED (C16_admission_all, C16_grant_has_room, C16_unfit_refused,
      C16_enabled_agrees); strict policies closed for workers WITHOUT coupling weights and answers of the solver that
      are minimal per entry / optimal in the monitor's sense (C16_strict_admission, C16_strict_enabled_and_allocate,
      C16_optimal_answer_minimal).  Still open: strict admission with coupling weights. *)
From HQ Require Import Base.Prelude Gen.Consts Alloc.Model Alloc.Spec Alloc.Lemmas Alloc.MirrorSystem
  Alloc.PolicyBase Alloc.PolicyFrac Alloc.PolicyScatter Alloc.PolicyTight Alloc.PolicyGrant
  Alloc.PolicyAdmission Alloc.PolicyStrict Alloc.PolicyStrictReach Alloc.PolicyStrictYard Alloc.PolicyOptimal.
Open Scope N_scope.


Theorem C16_claim_follows_policy : forall s rq w s' al,
  NoDup (map e_res rq) ->
  step s (OAlloc rq w) = Ok (s', OutGrant al) ->
  Forall (fun ra => exists e, In e rq /\ e_res e = ra_res ra
                              /\ scatter_ok (a_pools (s_alloc s)) e ra = true
                              /\ compact_even_ok (a_pools (s_alloc s)) e ra = true
                              /\ tight_ok (a_pools (s_alloc s)) e ra = true
                              /\ min_fraction_ok (a_pools (s_alloc s)) e ra = true) al.
Proof. exact PolicyGrant.C16_claim_follows_policy. Qed.

Theorem C16_scatter_shape : forall before e a wit full gs p' ra,
  e_req e = Req Scatter a ->
  nth_error before (nat_of (e_res e)) = Some (PGroups full gs) ->
  pool_claim (PGroups full gs) (e_res e) (e_req e) wit = Ok (p', ra) ->
  scatter_ok before e ra = true.
Proof. exact PolicyScatter.C16_scatter_shape. Qed.

Theorem C16_compact_shape : forall before e a mask wit full gs p' ra,
  e_req e = Req Compact a \/ e_req e = Req ForceCompact a ->
  NoDup mask ->
  nth_error before (nat_of (e_res e)) = Some (PGroups full gs) ->
  claim_with_group_mask (PGroups full gs) (e_res e) (e_req e) mask wit = Ok (p', ra) ->
  compact_even_ok before e ra = true.
Proof. exact PolicyScatter.C16_compact_shape. Qed.

(** the exact rule behind scatter / compact: the whole indices are handed out in rounds over the groups cycled
    through ([mask], or all groups for scatter), one per non-empty group and round: after [c] complete rounds and
    [pos] groups of the next one, the group at position j has given min(c+1, free_j) (j < pos) resp. min(c, free_j)
    whole indices; every index comes from one of these groups; the whole indices are the requested units *)
Theorem C16_round_robin : forall a gs sel wit gs' out,
  sinj (slist (length gs) sel) ->
  claim_scatter_from_groups a gs sel wit = Ok (gs', out) ->
  (exists c pos, forall j g, get_at (slist (length gs) sel) j = Ok g ->
                             wc out g = N.min (if j <? pos then c + 1 else c) (lenidx gs g))
  /\ Forall (okix (length gs) (slist (length gs) sel)) out
  /\ nwhole out = fst (split a).
Proof. exact claim_scatter_even. Qed.

Theorem C16_tight_shape : forall before e a mask wit full gs p' ra,
  e_req e = Req Tight a \/ e_req e = Req ForceTight a ->
  nth_error before (nat_of (e_res e)) = Some (PGroups full gs) ->
  claim_with_group_mask (PGroups full gs) (e_res e) (e_req e) mask wit = Ok (p', ra) ->
  tight_ok before e ra = true.
Proof. exact PolicyTight.C16_tight_shape. Qed.

Theorem C16_min_fraction_direct : forall before e wit p p' ra,
  nth_error before (nat_of (e_res e)) = Some p ->
  pool_claim p (e_res e) (e_req e) wit = Ok (p', ra) ->
  min_fraction_ok before e ra = true.
Proof. exact PolicyFrac.C16_min_fraction_direct. Qed.

Theorem C16_min_fraction_coupled : forall before e mask wit p p' ra,
  nth_error before (nat_of (e_res e)) = Some p ->
  claim_with_group_mask p (e_res e) (e_req e) mask wit = Ok (p', ra) ->
  min_fraction_ok before e ra = true.
Proof. exact PolicyFrac.C16_min_fraction_coupled. Qed.


Theorem C16_admission_iff_feasible_all : forall d s0 ops s rq w,
  init d = Ok s0 -> Forall valid_op ops -> run s0 ops = Ok s -> unforced rq = true ->
  has_resources (s_alloc s) rq w = Ok (request_fits (a_pools (s_alloc s)) rq, a_yard (s_alloc s)).
Proof. intros d s0 ops s rq w Hi Hv Hr Hu. exact (admission_iff_feasible_all d s0 ops s Hi Hv Hr rq w Hu). Qed.

Theorem C16_admission_all : forall d s0 ops s rq w,
  init d = Ok s0 -> Forall valid_op ops -> run s0 ops = Ok s -> unforced rq = true ->
  (forall s' o, step s (OAlloc rq w) = Ok (s', o) ->
                if request_fits (a_pools (s_alloc s)) rq then exists al, o = OutGrant al else o = OutNone)
  /\ (forall s' o, step s (OEnabled rq w) = Ok (s', o) ->
                   o = OutEnabled (request_fits (a_pools (s_alloc s)) rq)
                   /\ a_pools (s_alloc s') = a_pools (s_alloc s))
  /\ (forall s1 b w2 s2 o, step s (OEnabled rq w) = Ok (s1, OutEnabled b) -> step s1 (OAlloc rq w2) = Ok (s2, o) ->
                           if b then exists al, o = OutGrant al else o = OutNone).
Proof. exact PolicyAdmission.C16_admission_all. Qed.

Theorem C16_grant_has_room : forall d s0 ops s rq w s' al,
  init d = Ok s0 -> Forall valid_op ops -> run s0 ops = Ok s ->
  step s (OAlloc rq w) = Ok (s', OutGrant al) -> request_fits (a_pools (s_alloc s)) rq = true.
Proof. exact PolicyAdmission.C16_grant_has_room. Qed.

Theorem C16_unfit_refused : forall d s0 ops s rq w,
  init d = Ok s0 -> Forall valid_op ops -> run s0 ops = Ok s ->
  request_fits (a_pools (s_alloc s)) rq = false ->
  exists s', step s (OAlloc rq w) = Ok (s', OutNone) /\ step s (OEnabled rq w) = Ok (s', OutEnabled false).
Proof. exact PolicyAdmission.C16_unfit_refused. Qed.

Theorem C16_enabled_agrees : forall a rq w a1 b a2 r,
  is_enabled a rq w = Ok (a1, b) -> try_allocate a rq w = Ok (a2, r) ->
  b = match r with Some _ => true | None => false end.
Proof. exact enabled_agrees_with_allocate. Qed.


Theorem C16_strict_admission : forall d s0 ops s rq w ok yard,
  init d = Ok s0 -> Forall valid_op ops -> run s0 ops = Ok s ->
  d_coupling d = [] ->
  Forall (yard_op_ok (a_pools (s_alloc s0))) ops -> yard_witness_ok (a_pools (s_alloc s0)) rq w ->
  (forall ms, w_adm w = Some ms ->
              minimal_answer (map (ref_row (a_pools (s_alloc s))) (coupled_entries (a_pools (s_alloc s)) rq)) ms) ->
  existsb (fun e => is_forced (e_req e)) (coupled_entries (a_pools (s_alloc s)) rq) = true ->
  has_resources (s_alloc s) rq w = Ok (ok, yard) ->
  ok = request_fits (a_pools (s_alloc s)) rq
       && forallb (at_min (a_pools (s_alloc s0)) (a_pools (s_alloc s))) (coupled_entries (a_pools (s_alloc s)) rq).
Proof. exact PolicyStrictYard.C16_strict_admission. Qed.

Theorem C16_optimal_answer_minimal : forall rows entries ms o b,
  solver_objective false rows entries [] ms = Some o ->
  best_objective false rows entries [] = Some b -> o = b ->
  minimal_answer rows ms.
Proof. exact optimal_answer_minimal. Qed.

Print Assumptions C16_claim_follows_policy.
Print Assumptions C16_scatter_shape.
Print Assumptions C16_compact_shape.
Print Assumptions C16_round_robin.
Print Assumptions C16_tight_shape.
Print Assumptions C16_min_fraction_direct.
Print Assumptions C16_min_fraction_coupled.
Print Assumptions C16_admission_iff_feasible_all.
Print Assumptions C16_admission_all.
Print Assumptions C16_grant_has_room.
Print Assumptions C16_unfit_refused.
Print Assumptions C16_enabled_agrees.
Print Assumptions C16_strict_admission.
Print Assumptions C16_optimal_answer_minimal.
