(** C16 group count - the groups an accepted claim uses can hold the amount.
    Whatever a claim function returns and the gate [claim_ok] accepts (whole indices first, at most one fractional
    index last, amounts add up, replaying it on the pool succeeds) takes its indices from a SUFFICIENT set of
    groups; hence the number of groups used is at least the reference minimum [min_groups] of the pool before. *)
From Coq Require Import Permutation.
From HQ Require Import Base.Prelude Gen.Consts Alloc.Model Alloc.Spec Alloc.Lemmas Alloc.Group Alloc.Pool Alloc.Inv Alloc.Theorems Alloc.Mirror Alloc.MirrorSystem Alloc.Objective Alloc.CompleteTight
  Alloc.PolicyBase.
Require Import ZifyBool.
Open Scope N_scope.

Definition used (out : list aidx) : list N := dedup (map ai_group out).

Lemma groups_used_eq ra : groups_used ra = len (used (ra_indices ra)).
Proof. reflexivity. Qed.

Lemma in_used g out : In g (used out) <-> exists ix, In ix out /\ ai_group ix = g.
Proof.
  unfold used. rewrite in_dedup, in_map_iff. split; intros (ix & A & B); exists ix; auto.
Qed.

Definition per_of (gs : list group) : list (N * N) := map (fun g => (len (g_idx g), fmax (g_fr g))) gs.

Lemma pool_per_group_groups full gs : pool_per_group (PGroups full gs) = per_of gs.
Proof. reflexivity. Qed.

Lemma nth_per_of gs n : nth_error (per_of gs) n = match nth_error gs n with Some g => Some (len (g_idx g), fmax (g_fr g)) | None => None end.
Proof. unfold per_of. rewrite nth_error_map. destruct (nth_error gs n); reflexivity. Qed.

Lemma mask_sum_lenidx gs l : mask_sum (per_of gs) l fst = sumN (map (lenidx gs) l).
Proof.
  induction l as [|g l IH]; [reflexivity|]. rewrite mask_sum_cons, nth_per_of. cbn [map]. rewrite sumN_cons, IH, lenidx_nth.
  destruct (nth_error gs (nat_of g)); cbn [fst]; lia.
Qed.

Lemma sumN_map_le {A} (f g : A -> N) l : (forall x, In x l -> f x <= g x) -> sumN (map f l) <= sumN (map g l).
Proof.
  induction l as [|x l IH]; intros H; cbn [map]; rewrite ?sumN_cons, ?sumN_nil; [lia|].
  assert (f x <= g x) by (apply H; left; auto). assert (sumN (map f l) <= sumN (map g l)) by (apply IH; intros; apply H; right; auto). lia.
Qed.

Lemma sumN_map_lt {A} (f g : A -> N) l y : (forall x, In x l -> f x <= g x) -> In y l -> f y + 1 <= g y ->
  sumN (map f l) + 1 <= sumN (map g l).
Proof.
  induction l as [|x l IH]; intros H Hy Hlt; [destruct Hy|]. cbn [map]. rewrite !sumN_cons.
  assert (Hx : f x <= g x) by (apply H; left; auto).
  assert (Hl : sumN (map f l) <= sumN (map g l)) by (apply sumN_map_le; intros; apply H; right; auto).
  destruct Hy as [->|Hy]; [lia|]. assert (sumN (map f l) + 1 <= sumN (map g l)) by (apply IH; auto; intros; apply H; right; auto). lia.
Qed.

Lemma sum_indicator g l : NoDup l -> In g l -> sumN (map (fun j => if g =? j then 1 else 0) l) = 1.
Proof.
  induction l as [|x l IH]; intros Hnd Hin; [destruct Hin|]. inversion Hnd as [|? ? Hn Hd]; subst.
  cbn [map]. rewrite sumN_cons. destruct Hin as [->|Hin].
  - rewrite N.eqb_refl. rewrite sumN_map_zero; [lia|]. intros j Hj. destruct (N.eqb_spec g j); [subst; contradiction|reflexivity].
  - rewrite (IH Hd Hin). destruct (N.eqb_spec g x); [subst; contradiction|lia].
Qed.

Lemma whole_sum_wc ws l : Forall whole ws -> NoDup l -> (forall ix, In ix ws -> In (ai_group ix) l) ->
  len ws = sumN (map (wc ws) l).
Proof.
  intros Hw Hnd. induction Hw as [|ix ws Hix Hw IH]; intros Hc.
  - rewrite sumN_map_zero; [reflexivity|]. intros; apply wc_nil.
  - assert (E : forall l', sumN (map (wc (ix :: ws)) l') = sumN (map (fun j => if ai_group ix =? j then 1 else 0) l') + sumN (map (wc ws) l')).
    { induction l' as [|j l' IHl]; cbn [map]; rewrite ?sumN_cons, ?sumN_nil; [lia|].
      rewrite IHl, wc_cons. unfold whole in Hix. rewrite Hix, N.eqb_refl, andb_true_r. destruct (ai_group ix =? j); lia. }
    rewrite E, sum_indicator; auto; [|apply Hc; left; auto].
    rewrite <- IH by (intros; apply Hc; right; auto). unfold len. cbn [length]. lia.
Qed.

Lemma take_wholes ws : forall gs gs1, Forall whole ws -> take_all gs ws = Some gs1 ->
  (forall g, lenidx gs1 g + wc ws g = lenidx gs g)
  /\ (forall g x1, get_at gs1 g = Ok x1 -> exists x0, get_at gs g = Ok x0 /\ g_fr x1 = g_fr x0).
Proof.
  induction ws as [|ix ws IH]; intros gs gs1 Hw Ht; cbn [take_all] in Ht.
  - inversion Ht; subst. split; [intros g; rewrite wc_nil; lia | intros g x1 H; eauto].
  - inversion Hw as [|? ? Hix Hw']; subst.
    destruct (get_at gs (ai_group ix)) as [g0| |] eqn:Eg; try discriminate.
    rewrite take1_whole in Ht by auto.
    destruct (memN (ai_index ix) (g_idx g0)) eqn:Em; [|discriminate].
    apply memN_in in Em. pose proof (len_removeN _ _ Em) as Hlen.
    destruct (IH _ _ Hw' Ht) as [A B]. split.
    + intros g. pose proof (A g) as Ag. rewrite wc_cons. unfold whole in Hix. rewrite Hix, N.eqb_refl, andb_true_r.
      destruct (N.eqb_spec (ai_group ix) g) as [<-|Hne].
      * rewrite (lenidx_set_at_same _ _ _ _ Eg) in Ag. rewrite (lenidx_get _ _ _ Eg). cbn [g_idx] in Ag. lia.
      * rewrite lenidx_set_at_other in Ag by auto. lia.
    + intros g x1 Hx1. destruct (B g x1 Hx1) as (x' & Hx' & Hfr).
      destruct (N.eq_dec (ai_group ix) g) as [<-|Hne].
      * rewrite (get_at_set_at_same' _ _ _ _ Eg) in Hx'. inversion Hx'; subst x'. exists g0. split; auto.
      * rewrite get_at_set_at_other in Hx' by auto. eauto.
Qed.

Lemma take_all_range out : forall gs gs', take_all gs out = Some gs' -> Forall (fun ix => ai_group ix < len gs) out.
Proof.
  induction out as [|ix out IH]; intros gs gs' Ht; [constructor|]. cbn [take_all] in Ht.
  destruct (get_at gs (ai_group ix)) as [g| |] eqn:Eg; try discriminate.
  destruct (take1 g ix) as [g'|]; try discriminate.
  constructor; [eapply get_at_range; eauto|]. apply IH in Ht. rewrite len_set_at in Ht. exact Ht.
Qed.

Theorem accepted_sufficient gs out a gs' :
  shape_ok out = true -> fold_right N.add 0 (map held_ix out) = a -> take_all gs out = Some gs' ->
  sufficient (per_of gs) (fst (split a)) (snd (split a)) (used out) = true.
Proof.
  intros Hshape Htot Ht.
  destruct (shape_split _ Hshape) as (ws & fs & -> & Hw & Hf).
  rewrite take_all_app in Ht. destruct (take_all gs ws) as [gs1|] eqn:Ews; [|discriminate].
  destruct (take_wholes _ _ _ Hw Ews) as [Hcons Hfr].
  set (U := used (ws ++ fs)).
  assert (HndU : NoDup U) by apply nodup_dedup.
  assert (HinU : forall ix, In ix (ws ++ fs) -> In (ai_group ix) U) by (intros ix Hix; apply in_used; eauto).
  assert (Hlen : len ws = sumN (map (wc ws) U)).
  { apply whole_sum_wc; auto. intros ix Hix. apply HinU. apply in_or_app. auto. }
  assert (Hle : forall g, In g U -> wc ws g <= lenidx gs g) by (intros g _; specialize (Hcons g); lia).
  unfold sufficient. rewrite mask_sum_lenidx.
  destruct Hf as [->|(F & -> & HFz & HFl)].
  - rewrite (total_app ws [] 0) in Htot by auto. subst a. rewrite N.add_0_r.
    replace (len ws * FPU) with (len ws * FPU + 0) by lia. rewrite split_mk by apply FPU_pos. cbn [fst snd].
    rewrite N.eqb_refl. cbn [orb]. rewrite andb_true_r. apply N.leb_le. rewrite Hlen. apply sumN_map_le. auto.
  - rewrite (total_app ws [F] (ai_frac F)) in Htot by (auto; right; split; auto; exists F; auto). subst a.
    rewrite split_mk by auto. cbn [fst snd].
    assert (HFU : In (ai_group F) U) by (apply HinU; apply in_or_app; right; left; auto).
    cbn [take_all] in Ht. destruct (get_at gs1 (ai_group F)) as [g1| |] eqn:Eg1; try discriminate.
    destruct (take1 g1 F) as [g2|] eqn:Et; try discriminate.
    rewrite take1_memN in Et. cbv zeta in Et. destruct (N.eqb_spec (ai_frac F) 0) as [|_]; [congruence|].
    destruct (Hfr _ _ Eg1) as (g0 & Eg0 & Hfr0).
    destruct (fget (g_fr g1) (ai_index F)) as [v|] eqn:Ev.
    + destruct (N.leb_spec (ai_frac F) v) as [Hfit|]; [|discriminate].
      assert (H1 : (len ws <=? sumN (map (lenidx gs) U)) = true) by (apply N.leb_le; rewrite Hlen; apply sumN_map_le; auto).
      rewrite H1. cbn [andb]. apply orb_true_iff. right.
      apply existsb_exists. exists (ai_group F). split; auto.
      rewrite nth_per_of. apply get_at_ok in Eg0. destruct Eg0 as [_ Hn0]. rewrite Hn0. cbn [snd].
      apply N.leb_le. rewrite Hfr0 in Ev. pose proof (fmax_ge _ _ _ Ev). lia.
    + destruct (memN (ai_index F) (g_idx g1)) eqn:Em; [|discriminate]. apply memN_in in Em.
      assert (Hpos : 0 < lenidx gs1 (ai_group F)) by (rewrite (lenidx_get _ _ _ Eg1); eapply len_pos_in; eauto).
      assert (Hlt : sumN (map (wc ws) U) + 1 <= sumN (map (lenidx gs) U)).
      { apply (sumN_map_lt _ _ _ (ai_group F)); auto. specialize (Hcons (ai_group F)). lia. }
      destruct (N.leb_spec (len ws) (sumN (map (lenidx gs) U))); [|lia].
      destruct (N.leb_spec (len ws + 1) (sumN (map (lenidx gs) U))); [|lia].
      cbn [andb]. rewrite orb_true_r. reflexivity.
Qed.

Lemma mask_sum_perm per coef l l' : Permutation l l' -> mask_sum per l coef = mask_sum per l' coef.
Proof.
  induction 1 as [|x l l' _ IH|x y l|l l' l'' _ IH1 _ IH2]; auto; rewrite ?mask_sum_cons.
  - rewrite IH. reflexivity.
  - destruct (nth_error per (nat_of x)), (nth_error per (nat_of y)); lia.
  - congruence.
Qed.

Lemma sufficient_perm per u f l l' : Permutation l l' -> sufficient per u f l = sufficient per u f l'.
Proof.
  intros P. unfold sufficient. rewrite (mask_sum_perm per fst _ _ P).
  rewrite (existsb_perm _ _ _ P). reflexivity.
Qed.

Lemma filter_in_sublists {A} (p : A -> bool) l : In (filter p l) (sublists l).
Proof.
  induction l as [|x l IH]; cbn [filter sublists]; [left; reflexivity|].
  apply in_or_app. destruct (p x); [left; apply in_map; auto | right; auto].
Qed.

(** a duplicate-free set of group ids in range, as a selection the reference enumerates *)
Lemma nodup_sorted_rep n l : NoDup l -> (forall g, In g l -> g < N.of_nat n) ->
  exists m, In m (sublists (seqN 0 n)) /\ Permutation m l.
Proof.
  intros Hnd Hr. exists (filter (fun g => memN g l) (seqN 0 n)). split; [apply filter_in_sublists|].
  apply NoDup_Permutation; auto.
  - apply NoDup_filter, nodup_seqN.
  - intros x. rewrite filter_In, in_seqN, memN_in. split; [tauto|]. intros Hx. split; auto. specialize (Hr x Hx). lia.
Qed.

Theorem sufficient_ge_min per u f l :
  NoDup l -> (forall g, In g l -> g < len per) -> sufficient per u f l = true ->
  exists k, min_groups per u f = Some k /\ k <= len l.
Proof.
  intros Hnd Hr Hs. destruct (nodup_sorted_rep (length per) l Hnd Hr) as (m & Hm & P).
  rewrite <- (sufficient_perm per u f _ _ P) in Hs.
  pose proof (min_groups_correct per u f) as MC. unfold full_mask in MC.
  destruct (min_groups per u f) as [k|].
  - exists k. split; auto. destruct MC as [_ Hmin]. specialize (Hmin m Hm Hs).
    unfold len in *. rewrite <- (Permutation_length P). exact Hmin.
  - rewrite (MC m Hm) in Hs. discriminate.
Qed.

Theorem accepted_ge_min full gs p' rid pol a ra :
  claim_ok (PGroups full gs) p' rid (Req pol a) ra = true ->
  sufficient (per_of gs) (fst (split a)) (snd (split a)) (used (ra_indices ra)) = true
  /\ exists k, min_groups (per_of gs) (fst (split a)) (snd (split a)) = Some k /\ k <= groups_used ra.
Proof.
  intros Hok. destruct (claim_ok_inv _ _ _ _ _ Hok) as (_ & Ham & Hk & _ & Hcl).
  destruct p' as [| |f' gs'|]; try discriminate Hk. destruct Hcl as (Hshape & Htot & Ht). cbn [pool_groups req_amount] in *.
  unfold ra_total in Htot. rewrite Ham in Htot.
  pose proof (accepted_sufficient _ _ _ _ Hshape Htot Ht) as Hs. split; auto.
  rewrite groups_used_eq. apply sufficient_ge_min; auto; [apply nodup_dedup|].
  intros g Hg. apply in_used in Hg. destruct Hg as (ix & Hix & <-).
  pose proof (take_all_range _ _ _ Ht) as Hr. rewrite Forall_forall in Hr. specialize (Hr _ Hix).
  unfold per_of, len in *. rewrite map_length. exact Hr.
Qed.
