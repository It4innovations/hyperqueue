(** C18 (events) - the start of an allocation is announced at most once, its end exactly once,
    after the start if any; AllocationQueued exactly once. *)
From HQ Require Import Base.Prelude Gen.Consts Autoalloc.Model Autoalloc.Spec Autoalloc.Lemmas Autoalloc.Trans Autoalloc.ProofsC17 Autoalloc.ProofsC18 Autoalloc.ProofsIndex.
Open Scope N_scope.

Definition cq qi id l := count_ev (is_queued_ev qi id) l.
Definition cs qi id l := count_ev (is_started qi id) l.
Definition cf qi id l := count_ev (is_fin_ev qi id) l.
Notation nsaf := no_start_after_finish.

Lemma count_ev_app f l1 l2 : count_ev f (l1 ++ l2) = count_ev f l1 + count_ev f l2.
Proof. induction l1 as [|o l IH]; simpl; [lia|]. rewrite IH. lia. Qed.

Lemma nsaf_app qi id l1 l2 :
  nsaf qi id (l1 ++ l2) = true <->
  nsaf qi id l1 = true /\ nsaf qi id l2 = true /\ (cf qi id l1 = 0 \/ cs qi id l2 = 0).
Proof.
  induction l1 as [|o l IH]; simpl.
  - unfold cf; simpl. split; [intros H; repeat split; auto|tauto].
  - unfold cf, cs in *. simpl. destruct (is_fin_ev qi id o) eqn:E.
    + rewrite !andb_true_iff, IH, count_ev_app. split.
      * intros (H1 & H2 & H3 & H4). split; [split; [lia|exact H2]|]. split; [exact H3|]. right. lia.
      * intros ((H1 & H2) & H3 & H4). destruct H4 as [H4|H4]; [lia|].
        split; [lia|]. split; [exact H2|]. split; [exact H3|]. right; exact H4.
    + rewrite IH. replace (0 + count_ev (is_fin_ev qi id) l) with (count_ev (is_fin_ev qi id) l) by lia. tauto.
Qed.

Definition about (qi : qid) (id : aid) (o : out) : bool :=
  is_queued_ev qi id o || is_started qi id o || is_fin_ev qi id o.
Definition noabout qi id (l : list out) : Prop := Forall (fun o => about qi id o = false) l.

Lemma noabout_counts qi id l : noabout qi id l -> cq qi id l = 0 /\ cs qi id l = 0 /\ cf qi id l = 0 /\ nsaf qi id l = true.
Proof.
  unfold cq, cs, cf. induction 1 as [|o l Ho _ IH]; simpl; [auto|].
  unfold about in Ho. rewrite !orb_false_iff in Ho. destruct Ho as [[H1 H2] H3]. rewrite H1, H2, H3.
  destruct IH as (A & B & C & D). repeat split; auto; lia.
Qed.

Lemma noabout_app qi id l1 l2 : noabout qi id l1 -> noabout qi id l2 -> noabout qi id (l1 ++ l2).
Proof. unfold noabout. intros. apply Forall_app. auto. Qed.

Definition evok (evs : list out) (qi : qid) (a : alloc) : Prop :=
  cq qi (a_id a) evs = 1 /\ cs qi (a_id a) evs <= 1
  /\ (rank (a_status a) = 0 -> cs qi (a_id a) evs = 0)
  /\ cf qi (a_id a) evs = (if is_finished a then 1 else 0)
  /\ nsaf qi (a_id a) evs = true.

Definition silent qi id evs : Prop := cq qi id evs = 0 /\ cs qi id evs = 0 /\ cf qi id evs = 0.

Lemma evok_events_ok evs qi a : evok evs qi a -> events_ok evs qi a = true.
Proof.
  intros (A & B & _ & D & E). unfold events_ok. fold (cq qi (a_id a) evs) (cs qi (a_id a) evs) (cf qi (a_id a) evs).
  rewrite A, D, E. rewrite !andb_true_iff. repeat split; auto; try lia; destruct (is_finished a); reflexivity.
Qed.

Lemma evok_app_quiet evs outs qi a : evok evs qi a -> noabout qi (a_id a) outs -> evok (evs ++ outs) qi a.
Proof.
  intros (A & B & C & D & E) Q. destruct (noabout_counts _ _ _ Q) as (Q1 & Q2 & Q3 & Q4).
  unfold evok, cq, cs, cf in *. rewrite !count_ev_app.
  split; [lia|]. split; [lia|]. split; [intros H; specialize (C H); lia|]. split; [lia|].
  apply nsaf_app. unfold cf, cs. repeat split; auto.
Qed.

Lemma silent_app_quiet evs outs qi id : silent qi id evs -> noabout qi id outs -> silent qi id (evs ++ outs).
Proof.
  intros (A & B & C) Q. destruct (noabout_counts _ _ _ Q) as (Q1 & Q2 & Q3 & _).
  unfold silent, cq, cs, cf in *. rewrite !count_ev_app. lia.
Qed.

Lemma key_other qi id qj idj : (qj <> qi \/ idj <> id) -> (qi =? qj) && (id =? idj) = false.
Proof.
  intros H. destruct (qi =? qj) eqn:E1; simpl; auto. destruct (id =? idj) eqn:E2; auto.
  apply N.eqb_eq in E1, E2. subst. tauto.
Qed.

Lemma about_started_other qi id qj idj : (qj <> qi \/ idj <> id) -> about qj idj (EvStarted qi id) = false.
Proof. intros H. unfold about; simpl. now rewrite (key_other _ _ _ _ H). Qed.
Lemma about_finished_other qi id qj idj : (qj <> qi \/ idj <> id) -> about qj idj (EvFinished qi id) = false.
Proof. intros H. unfold about; simpl. now rewrite (key_other _ _ _ _ H). Qed.
Lemma about_queued_other qi id n qj idj : (qj <> qi \/ idj <> id) -> about qj idj (EvQueued qi id n) = false.
Proof. intros H. unfold about; simpl. now rewrite (key_other _ _ _ _ H). Qed.

Definition evs_of (qi : qid) (id : aid) (l : list out) : Prop :=
  Forall (fun o => o = EvStarted qi id \/ o = EvFinished qi id) l.

Lemma evs_of_noabout qi id l qj idj : evs_of qi id l -> (qj <> qi \/ idj <> id) -> noabout qj idj l.
Proof.
  intros H Hne. induction H as [|o l Ho _ IH]; constructor; auto.
  destruct Ho as [->| ->]; [now apply about_started_other|now apply about_finished_other].
Qed.

Lemma counts_started qi id : cq qi id [EvStarted qi id] = 0 /\ cs qi id [EvStarted qi id] = 1 /\ cf qi id [EvStarted qi id] = 0.
Proof. unfold cq, cs, cf; simpl. rewrite !N.eqb_refl. simpl. repeat split; lia. Qed.
Lemma counts_finished qi id : cq qi id [EvFinished qi id] = 0 /\ cs qi id [EvFinished qi id] = 0 /\ cf qi id [EvFinished qi id] = 1.
Proof. unfold cq, cs, cf; simpl. rewrite !N.eqb_refl. simpl. repeat split; lia. Qed.

Lemma evok_nothing evs qi a a' :
  evok evs qi a -> a_id a' = a_id a -> is_finished a' = is_finished a ->
  (rank (a_status a') = 0 -> rank (a_status a) = 0) -> evok (evs ++ []) qi a'.
Proof.
  intros (A & B & C & D & E) Hid Hf Hr. rewrite app_nil_r. unfold evok. rewrite Hid, Hf. repeat split; auto.
Qed.

Lemma evok_start evs qi a a' :
  evok evs qi a -> a_id a' = a_id a -> rank (a_status a) = 0 -> rank (a_status a') = 1 ->
  evok (evs ++ [EvStarted qi (a_id a)]) qi a'.
Proof.
  intros (A & B & C & D & E) Hid H0 H1. destruct (counts_started qi (a_id a)) as (S1 & S2 & S3).
  assert (Hf : is_finished a = false) by (unfold is_finished; rewrite H0; reflexivity).
  assert (Hf' : is_finished a' = false) by (unfold is_finished; rewrite H1; reflexivity).
  unfold evok, cq, cs, cf in *. rewrite Hid, Hf', !count_ev_app. rewrite Hf in D. specialize (C H0).
  split; [lia|]. split; [lia|]. split; [intros; lia|]. split; [lia|].
  apply nsaf_app. unfold cf, cs. split; [exact E|]. split; [reflexivity|]. left. exact D.
Qed.

Lemma evok_finish evs qi a a' :
  evok evs qi a -> a_id a' = a_id a -> is_finished a = false -> is_finished a' = true ->
  evok (evs ++ [EvFinished qi (a_id a)]) qi a'.
Proof.
  intros (A & B & C & D & E) Hid H0 H1. destruct (counts_finished qi (a_id a)) as (S1 & S2 & S3).
  unfold evok, cq, cs, cf in *. rewrite Hid, H1, !count_ev_app. rewrite H0 in D.
  split; [lia|]. split; [lia|].
  split; [intros Hr; unfold is_finished in H1; rewrite Hr in H1; discriminate|]. split; [lia|].
  apply nsaf_app. unfold cf, cs. split; [exact E|]. split; [|right; exact S2].
  simpl. rewrite !N.eqb_refl. reflexivity.
Qed.

Lemma evok_start_finish evs qi a a' :
  evok evs qi a -> a_id a' = a_id a -> rank (a_status a) = 0 -> is_finished a' = true ->
  evok (evs ++ [EvStarted qi (a_id a); EvFinished qi (a_id a)]) qi a'.
Proof.
  intros H Hid H0 H1.
  set (am := mkAlloc (a_id a) (a_target a) (Running 0 [] [])).
  assert (Hm : evok (evs ++ [EvStarted qi (a_id a)]) qi am) by (apply evok_start; auto).
  pose proof (evok_finish _ qi am a' Hm Hid eq_refl H1) as Hf. simpl in Hf.
  now rewrite <- app_assoc in Hf.
Qed.

(** one [sync_alloc] + the finish event appended by [sync_allocation_status] *)
Lemma sync_alloc_evok qi a r a' evs_a fin evs :
  1 <= a_target a ->
  sync_alloc qi a r = (a', evs_a, fin) -> evok evs qi a ->
  evok (evs ++ evs_a ++ fin_events qi (a_id a) fin) qi a' /\ evs_of qi (a_id a) (evs_a ++ fin_events qi (a_id a) fin).
Proof.
  intros Ht H E. unfold sync_alloc in H. destruct a as [id tg st]. simpl in *.
  assert (Nothing : forall st', (rank st' = 0 -> rank st = 0) -> (rank st' =? 2) = (rank st =? 2) ->
            evok (evs ++ [] ++ []) qi (mkAlloc id tg st') /\ evs_of qi id ([] ++ [])).
  { intros st' H1 H2. split; [|constructor]. simpl. apply (evok_nothing evs qi (mkAlloc id tg st)); auto. }
  destruct r; destruct st as [e|e conn disc|disc|conn disc f]; simpl in H;
    repeat match type of H with context [if ?c then _ else _] => destruct c eqn:? end;
    inv H; simpl fin_events;
    try (apply Nothing; simpl; auto; try discriminate; fail).
  all: split; [|repeat (apply Forall_cons; [first [left; reflexivity | right; reflexivity]|]); apply Forall_nil].
  all: simpl; match goal with E : evok _ _ ?a0 |- _ =>
         first [ apply (evok_start evs qi a0); auto; fail
               | apply (evok_start_finish evs qi a0); auto; fail
               | apply (evok_finish evs qi a0); auto; fail ] end.
Qed.

Lemma bump_evok qi a a' evs_a evs :
  increase_status_error_counter qi a = (a', evs_a) -> evok evs qi a ->
  evok (evs ++ evs_a) qi a' /\ evs_of qi (a_id a) evs_a.
Proof.
  intros H E. unfold increase_status_error_counter in H. destruct a as [id tg st]. simpl in *.
  assert (Nothing : forall st', (rank st' = 0 -> rank st = 0) -> (rank st' =? 2) = (rank st =? 2) ->
            evok (evs ++ []) qi (mkAlloc id tg st') /\ evs_of qi id []).
  { intros st' H1 H2. split; [|constructor]. apply (evok_nothing evs qi (mkAlloc id tg st)); auto. }
  destruct st as [e|e conn disc|disc|conn disc f]; simpl in H;
    repeat match type of H with context [if ?c then _ else _] => destruct c eqn:? end;
    inv H; try (apply Nothing; simpl; auto; try discriminate; fail).
  all: split; [|repeat (apply Forall_cons; [first [left; reflexivity | right; reflexivity]|]); apply Forall_nil].
  all: simpl; match goal with E : evok _ _ ?a0 |- _ => apply (evok_finish evs qi a0); auto end.
Qed.

Definition qeinv (qi : qid) (q : queue) (evs : list out) : Prop :=
  (forall a, In a (q_allocs q) -> evok evs qi a)
  /\ (forall id, ~ In id (qids q) -> silent qi id evs).

Definition only_about (qi : qid) (ids : list aid) (outs : list out) : Prop :=
  forall qj idj, (qj <> qi \/ ~ In idj ids) -> noabout qj idj outs.

Lemma only_about_app qi ids l1 l2 : only_about qi ids l1 -> only_about qi ids l2 -> only_about qi ids (l1 ++ l2).
Proof. intros H1 H2 qj idj Hne. apply noabout_app; auto. Qed.

Lemma only_about_nil qi ids : only_about qi ids [].
Proof. intros qj idj _. constructor. Qed.

Lemma evs_of_only_about qi id ids l : evs_of qi id l -> In id ids -> only_about qi ids l.
Proof.
  intros H Hin qj idj Hne. eapply evs_of_noabout; eauto.
  destruct Hne as [Hne|Hne]; auto. right. intros ->. contradiction.
Qed.

Lemma qeinv_update qi q id a a' evs outs :
  ids_nodup q -> find_alloc id (q_allocs q) = Some a -> a_id a' = a_id a ->
  qeinv qi q evs -> evok (evs ++ outs) qi a' -> evs_of qi id outs ->
  qeinv qi (set_allocs (update_alloc id (fun _ => a') (q_allocs q)) q) (evs ++ outs).
Proof.
  intros ND Hf Hid (E1 & E2) Hok Hev. pose proof (find_alloc_in _ _ _ Hf) as [Ha Hida].
  split.
  - intros b Hb. simpl in Hb. apply in_update_alloc in Hb. destruct Hb as [[-> _]|[Hb Hne]]; auto.
    apply evok_app_quiet; auto. eapply evs_of_noabout; eauto.
  - intros idj Hn. apply silent_app_quiet.
    + apply E2. intros Hin. apply Hn. unfold qids in *. simpl. rewrite update_alloc_const_ids; auto. congruence.
    + eapply evs_of_noabout; eauto. right. intros ->. apply Hn. unfold qids; simpl.
      rewrite update_alloc_const_ids; [|congruence]. rewrite <- Hida. now apply in_map.
Qed.

Lemma set_lim_qeinv qi q l evs : qeinv qi q evs -> qeinv qi (set_lim l q) evs.
Proof. intros H. exact H. Qed.

Lemma sync_allocation_status_qeinv qi q id r q' outs evs :
  qinv2 q -> sync_allocation_status qi q id r = (q', outs) -> qeinv qi q evs ->
  qeinv qi q' (evs ++ outs) /\ only_about qi (qids q) outs.
Proof.
  intros Hq H E. apply sync_allocation_status_spec in H.
  destruct (find_alloc id (q_allocs q)) as [a|] eqn:Ef.
  2:{ destruct H as [-> ->]. rewrite app_nil_r. split; auto. apply only_about_nil. }
  destruct H as (a' & evs_a & fin & Es & -> & ->).
  pose proof (find_alloc_in _ _ _ Ef) as [Ha Hida].
  assert (Ht : 1 <= a_target a) by (apply (qinv2_sizes_pos _ Hq); auto).
  destruct (sync_alloc_evok _ _ _ _ _ _ evs Ht Es (proj1 E _ Ha)) as [Hok Hev]. rewrite Hida in *.
  pose proof (sync_alloc_trans _ _ _ _ _ _ Es) as (Hid' & _). split.
  - apply set_lim_qeinv. eapply qeinv_update; eauto. apply Hq.
  - eapply evs_of_only_about; eauto. unfold qids. rewrite <- Hida. now apply in_map.
Qed.

Lemma bump_qeinv qi q id q' outs evs :
  qinv2 q -> bump qi q id = (q', outs) -> qeinv qi q evs ->
  qeinv qi q' (evs ++ outs) /\ only_about qi (qids q) outs.
Proof.
  intros Hq H E. apply bump_spec in H. destruct (find_alloc id (q_allocs q)) as [a|] eqn:Ef.
  2:{ destruct H as [-> ->]. rewrite app_nil_r. split; auto. apply only_about_nil. }
  destruct H as (a' & Ei & ->). pose proof (find_alloc_in _ _ _ Ef) as [Ha Hida].
  destruct (bump_evok _ _ _ _ evs Ei (proj1 E _ Ha)) as [Hok Hev]. rewrite Hida in *.
  pose proof (bump_trans _ _ _ _ Ei) as (Hid' & _).
  split.
  - eapply qeinv_update; eauto. apply Hq.
  - eapply evs_of_only_about; eauto. unfold qids. rewrite <- Hida. now apply in_map.
Qed.

Lemma only_about_ids qi ids ids' l : only_about qi ids l -> (forall x, In x ids -> In x ids') -> only_about qi ids' l.
Proof. intros H Hs qj idj [Hne|Hne]; apply H; auto. Qed.

Definition qemits (qi : qid) (q : queue) (o : list out) (q' : queue) : Prop :=
  qinv2 q -> queue_le q q'
             /\ forall evs, qeinv qi q evs -> qeinv qi q' (evs ++ o) /\ only_about qi (qids q) o.

Lemma qemits_nil qi q : qemits qi q [] q.
Proof.
  intros _. split; [apply queue_le_refl|]. intros evs. rewrite app_nil_r. split; [assumption|apply only_about_nil].
Qed.

Lemma qemits_app qi q1 o1 q2 o2 q3 : qemits qi q1 o1 q2 -> qemits qi q2 o2 q3 -> qemits qi q1 (o1 ++ o2) q3.
Proof.
  intros H1 H2 Hq. destruct (H1 Hq) as (L1 & K1). destruct (H2 (queue_le_qinv2 _ _ L1 Hq)) as (L2 & K2).
  split; [eauto using queue_le_trans|]. intros evs E.
  destruct (K1 _ E) as (E1 & O1). destruct (K2 _ E1) as (E2 & O2). rewrite (queue_le_qids _ _ L1) in O2.
  rewrite app_assoc. split; [exact E2|now apply only_about_app].
Qed.

Lemma bump_qemits qi q id q' o : bump qi q id = (q', o) -> qemits qi q o q'.
Proof. intros H Hq. split; [eapply bump_le; eauto; apply Hq|intros evs; eapply bump_qeinv; eauto]. Qed.

Lemma sync_allocation_status_qemits qi q id r q' o : sync_allocation_status qi q id r = (q', o) -> qemits qi q o q'.
Proof.
  intros H Hq. split; [eapply sync_allocation_status_le; eauto; apply Hq|].
  intros evs; eapply sync_allocation_status_qeinv; eauto.
Qed.

Definition einv (s : state) (evs : list out) : Prop :=
  (forall qi q, get_queue s qi = Some q -> qeinv qi q evs)
  /\ (forall qi id, get_queue s qi = None -> s_next_qid s <= qi -> silent qi id evs).

Definition only_queue (qi : qid) (outs : list out) : Prop :=
  forall qj idj, qj <> qi -> noabout qj idj outs.

Lemma only_about_queue qi ids outs : only_about qi ids outs -> only_queue qi outs.
Proof. intros H qj idj Hne. apply H. auto. Qed.

Lemma qeinv_app_quiet qi q evs outs :
  qeinv qi q evs -> (forall id, noabout qi id outs) -> qeinv qi q (evs ++ outs).
Proof.
  intros (E1 & E2) Q. split.
  - intros a Ha. apply evok_app_quiet; auto.
  - intros id Hn. apply silent_app_quiet; auto.
Qed.

Lemma qeinv_same_allocs qi q q' evs : q_allocs q' = q_allocs q -> qeinv qi q evs -> qeinv qi q' evs.
Proof. intros E (E1 & E2). unfold qeinv, qids. rewrite E. auto. Qed.

Lemma einv_app_quiet s evs outs :
  einv s evs -> (forall qi id, noabout qi id outs) -> einv s (evs ++ outs).
Proof.
  intros (E1 & E2) Q. split.
  - intros qi q G. apply qeinv_app_quiet; auto.
  - intros qi id G Hn. apply silent_app_quiet; auto.
Qed.

Lemma einv_set_queue s qi q q' evs outs :
  get_queue s qi = Some q -> einv s evs -> qeinv qi q' (evs ++ outs) -> only_queue qi outs ->
  einv (set_queue s qi q') (evs ++ outs).
Proof.
  intros G (E1 & E2) Hq O. split.
  - intros qj v Gj. destruct (N.eq_dec qj qi) as [->|Hne].
    + rewrite (get_queue_set_queue_same _ _ _ _ G) in Gj. now inv Gj.
    + rewrite get_queue_set_queue_other in Gj; auto. apply qeinv_app_quiet; auto.
  - intros qj id Gj Hn. simpl in Hn. destruct (N.eq_dec qj qi) as [->|Hne].
    + rewrite (get_queue_set_queue_same _ _ _ _ G) in Gj. discriminate.
    + rewrite get_queue_set_queue_other in Gj; auto. apply silent_app_quiet; auto.
Qed.

Lemma einv_same_allocs s s' evs :
  s_next_qid s' = s_next_qid s ->
  (forall qi, match get_queue s' qi with
              | Some q' => exists q, get_queue s qi = Some q /\ q_allocs q' = q_allocs q
              | None => get_queue s qi = None
              end) ->
  einv s evs -> einv s' evs.
Proof.
  intros En H (E1 & E2). split.
  - intros qi q' G. specialize (H qi). rewrite G in H. destruct H as (q & G0 & E).
    eapply qeinv_same_allocs; eauto.
  - intros qi id G Hn. specialize (H qi). rewrite G in H. rewrite En in Hn. auto.
Qed.

Lemma einv_qemits s qi q o q' evs :
  sinv s -> get_queue s qi = Some q -> qemits qi q o q' -> einv s evs -> einv (set_queue s qi q') (evs ++ o).
Proof.
  intros Hs Eq K E. destruct (K (sinv_get _ _ _ Hs Eq)) as [_ K'].
  destruct (K' _ (proj1 E _ _ Eq)) as [E1 O1]. eapply einv_set_queue; eauto using only_about_queue.
Qed.

Lemma refresh_queue_allocations_einv s qj w s' outs evs :
  sinv s -> refresh_queue_allocations s qj w = Ok (s', outs) -> einv s evs -> einv s' (evs ++ outs).
Proof.
  intros Hs H E. apply refresh_queue_allocations_spec in H.
  destruct H as [(-> & ->)|(q & sw & q' & Eq & -> & Hl)]; [now rewrite app_nil_r|].
  eapply einv_qemits; eauto. revert Hl. destruct (sw_err sw).
  - apply (refresh_err_loop_ind qj (qemits qj)); eauto using qemits_nil, qemits_app, bump_qemits.
  - apply (refresh_loop_ind qj (qemits qj));
      eauto using qemits_nil, qemits_app, bump_qemits, sync_allocation_status_qemits.
Qed.

Lemma periodic_loop_einv order s wits s' outs evs :
  sinv s -> periodic_loop s order wits = Ok (s', outs) -> einv s evs -> einv s' (evs ++ outs).
Proof.
  intros Hs H. revert H evs Hs.
  apply (periodic_loop_ind (fun s o s' => forall evs, sinv s -> einv s evs -> sinv s' /\ einv s' (evs ++ o))).
  - intros ? ?. now rewrite app_nil_r.
  - intros s1 o1 s2 o2 s3 H1 H2 evs I1 E1. destruct (H1 _ I1 E1) as [I2 E2]. rewrite app_assoc. auto.
  - eauto using refresh_queue_allocations_sinv, refresh_queue_allocations_einv.
Qed.

Lemma worker_event_einv s id r s' outs evs :
  sinv s -> worker_event s id r = (s', outs) -> einv s evs -> einv s' (evs ++ outs).
Proof.
  intros Hs H E. apply worker_event_spec in H.
  destruct H as [(-> & -> & _)|(qj & q & q' & _ & Eq & Hl & ->)]; [now rewrite app_nil_r|].
  eapply einv_qemits; eauto using sync_allocation_status_qemits.
Qed.

Lemma cf_zero_nsaf qi id l : cf qi id l = 0 -> nsaf qi id l = true.
Proof.
  unfold cf. induction l as [|o l IH]; simpl; auto. destruct (is_fin_ev qi id o); [lia|].
  intros H. apply IH. lia.
Qed.

Lemma noabout_submit qi n qj idj : about qj idj (OutSubmit qi n) = false.
Proof. reflexivity. Qed.

Lemma submit_loop_qeinv qi permit script q idx q2 idx2 outs sc evs :
  submit_loop qi permit script q idx = Ok (q2, idx2, outs, sc) -> qeinv qi q evs ->
  qeinv qi q2 (evs ++ outs) /\ only_queue qi outs.
Proof.
  intros H. revert evs. revert H.
  apply (submit_loop_ind qi (fun _ q _ outs q2 _ => forall evs, qeinv qi q evs ->
                                                  qeinv qi q2 (evs ++ outs) /\ only_queue qi outs)); clear.
  - intros q _ evs E. rewrite app_nil_r. split; auto. intros qj idj _. constructor.
  - intros n rest q _ id outs q2 _ _ Ef IH evs (E1 & E2). apply find_alloc_none_notin in Ef.
    destruct (IH (evs ++ [OutSubmit qi n; EvQueued qi id n])) as [R O].
    { split.
      - intros a Ha. simpl in Ha. apply in_app_or in Ha. destruct Ha as [Ha|[<-|[]]].
        + apply evok_app_quiet; auto. repeat constructor.
          apply about_queued_other. right. intros E. apply Ef. rewrite <- E. now apply in_map.
        + destruct (E2 id Ef) as (S1 & S2 & S3).
          unfold evok, cq, cs, cf in *. simpl a_id. rewrite !count_ev_app. simpl. rewrite !N.eqb_refl. simpl.
          split; [lia|]. split; [lia|]. split; [intros; lia|]. split; [lia|].
          apply nsaf_app. split; [now apply cf_zero_nsaf|]. split; [reflexivity|]. left. exact S3.
      - intros idj Hn. assert (Hne : idj <> id /\ ~ In idj (qids q)).
        { unfold qids in *. simpl in Hn. rewrite map_app in Hn. simpl in Hn. split.
          - intros ->. apply Hn. apply in_or_app. right. simpl. auto.
          - intros Hin. apply Hn. apply in_or_app. auto. }
        apply silent_app_quiet; [apply E2; tauto|]. repeat constructor.
        apply about_queued_other. right. tauto. }
    split.
    + rewrite <- app_assoc in R. exact R.
    + intros qj idj Hne. constructor; [reflexivity|]. constructor; [apply about_queued_other; auto|]. apply O; auto.
  - intros n rest q _ evs E. split.
    + apply qeinv_app_quiet; [exact E|]. intros. repeat constructor.
    + intros qj idj _. repeat constructor.
Qed.

Lemma queue_try_submit_einv s qj r script s' outs sc evs :
  queue_try_submit s qj r script = Ok (s', outs, sc) -> einv s evs -> einv s' (evs ++ outs).
Proof.
  intros H E. apply queue_try_submit_spec in H.
  destruct H as [(-> & -> & _)|(q & permit & q1 & idx1 & Eq & _ & _ & _ & _ & _ & Hl & ->)]; [now rewrite app_nil_r|].
  assert (E0 : qeinv qj (set_lim (on_submission_attempt (s_now s) (q_lim q)) q) evs) by (apply (proj1 E _ _ Eq)).
  destruct (submit_loop_qeinv _ _ _ _ _ _ _ _ _ evs Hl E0) as [E1 O1].
  apply (einv_set_queue s qj q q1 evs outs Eq E E1 O1).
Qed.

Lemma try_pause_all_einv s evs : einv s evs -> einv (try_pause_all s) evs.
Proof.
  apply einv_same_allocs; auto. intros qi. rewrite get_queue_try_pause_all.
  destruct (get_queue s qi); simpl; auto. eexists. split; eauto. apply try_pause_queue_allocs.
Qed.

Lemma perform_submits_einv s order resps scripts s' outs evs :
  perform_submits s order resps scripts = Ok (s', outs) -> einv s evs -> einv s' (evs ++ outs).
Proof.
  intros H E. apply perform_submits_spec in H. apply try_pause_all_einv in E.
  destruct H as [_ [(_ & -> & ->)|(s2 & _ & Hq & ->)]]; [now rewrite app_nil_r|].
  apply try_pause_all_einv. revert Hq evs E.
  apply (submit_queues_ind (fun s o s' => forall evs, einv s evs -> einv s' (evs ++ o)));
    eauto using queue_try_submit_einv.
  - intros ? ?. now rewrite app_nil_r.
  - intros. rewrite app_assoc. auto.
Qed.

Lemma noabout_ret b qi id : about qi id (OutRet b) = false.
Proof. reflexivity. Qed.

Lemma step_einv s o s' outs evs :
  sinv s -> ixinv s -> step s o = Ok (s', outs) -> einv s evs -> einv s' (evs ++ outs).
Proof.
  intros Hs I H. revert H evs Hs I.
  apply (step_cases (fun s _ o s' => forall evs, sinv s -> ixinv s -> einv s evs -> einv s' (evs ++ o))); clear;
    eauto using perform_submits_einv, queue_try_submit_einv, periodic_loop_einv.
  - intros s o b _ evs _ _ E. apply einv_app_quiet; auto. intros; repeat constructor.
  - intros s backlog mwpa maxw lim l _ evs _ _ (E1 & E2).
    assert (NA : forall qi id, noabout qi id [OutRet true; EvQueueCreated (s_next_qid s)]) by (intros; repeat constructor).
    split.
    + intros qi q G. unfold get_queue in G; simpl in G. rewrite alookup_app in G.
      destruct (alookup qi (s_queues s)) as [q0|] eqn:El.
      * inv G. apply qeinv_app_quiet; auto.
      * simpl in G. destruct (s_next_qid s =? qi) eqn:En; [|discriminate]. inv G. apply N.eqb_eq in En. subst qi.
        split; [intros a []|]. intros id _. apply silent_app_quiet; auto. apply E2; auto. lia.
    + intros qi id G Hn. simpl in Hn. unfold get_queue in G; simpl in G. rewrite alookup_app in G.
      destruct (alookup qi (s_queues s)) eqn:El; [discriminate|].
      apply silent_app_quiet; auto. apply E2; auto. lia.
  - intros s o a r s' o1 _ Ew evs Hs _ E.
    change (OutRet true :: o1) with ([OutRet true] ++ o1). rewrite app_assoc.
    eapply worker_event_einv; eauto. apply einv_app_quiet; auto. intros; repeat constructor.
  - intros s o q v f Hf Eq evs _ _ E. apply einv_app_quiet; [|intros; repeat constructor].
    eapply einv_same_allocs; [| |exact E]; auto. intros qi. destruct (N.eq_dec qi q) as [->|Hne].
    + rewrite (get_queue_set_queue_same _ _ _ _ Eq). exists v. now destruct Hf as [[_ ->] | [_ ->]].
    + rewrite get_queue_set_queue_other; auto. destruct (get_queue s qi); eauto.
  - intros s q force v idx Eq _ evs _ I (E1 & E2). apply einv_app_quiet.
    2:{ intros qi id. constructor; [reflexivity|]. apply noabout_app; [|repeat constructor].
        induction (filter is_active (q_allocs v)); simpl; constructor; auto. }
    split.
    + intros qi q0 G. rewrite get_queue_remove in G. destruct (qi =? q); [discriminate|auto].
    + intros qi id G Hn. simpl in Hn. rewrite get_queue_remove in G. destruct (qi =? q) eqn:E; [|auto].
      exfalso. apply N.eqb_eq in E. subst. destruct I as (_ & _ & _ & I4). apply alookup_in in Eq.
      assert (In q (map fst (s_queues s))) by (change q with (fst (q, v)); now apply in_map).
      apply I4 in H. clear - Hn H. lia.
  - intros s d evs _ _ (E1 & E2). rewrite app_nil_r. split; auto.
Qed.

(** non-events do not matter *)
Lemma count_filter_event f l :
  (forall o, f o = true -> is_event o = true) -> count_ev f (filter is_event l) = count_ev f l.
Proof.
  intros Hf. induction l as [|o l IH]; simpl; auto. destruct (is_event o) eqn:E; simpl; [now rewrite IH|].
  destruct (f o) eqn:F; [apply Hf in F; congruence|]. rewrite IH. lia.
Qed.

Lemma is_queued_ev_event qi id o : is_queued_ev qi id o = true -> is_event o = true.
Proof. destruct o; simpl; auto; discriminate. Qed.
Lemma is_started_event qi id o : is_started qi id o = true -> is_event o = true.
Proof. destruct o; simpl; auto; discriminate. Qed.
Lemma is_fin_ev_event qi id o : is_fin_ev qi id o = true -> is_event o = true.
Proof. destruct o; simpl; auto; discriminate. Qed.

Lemma nsaf_filter_event qi id l : nsaf qi id (filter is_event l) = nsaf qi id l.
Proof.
  induction l as [|o l IH]; simpl; auto. destruct (is_event o) eqn:E; simpl.
  - rewrite IH, (count_filter_event _ l (is_started_event qi id)). reflexivity.
  - destruct (is_fin_ev qi id o) eqn:F; [apply is_fin_ev_event in F; congruence|exact IH].
Qed.

Lemma evok_filter evs outs qi a : evok (evs ++ outs) qi a -> evok (evs ++ filter is_event outs) qi a.
Proof.
  intros (A & B & C & D & E). unfold evok, cq, cs, cf in *. rewrite !count_ev_app in *.
  rewrite (count_filter_event _ outs (is_queued_ev_event qi (a_id a))),
          (count_filter_event _ outs (is_started_event qi (a_id a))),
          (count_filter_event _ outs (is_fin_ev_event qi (a_id a))).
  repeat split; auto. apply nsaf_app in E. apply nsaf_app. destruct E as (E1 & E2 & E3).
  rewrite nsaf_filter_event. unfold cs in *. rewrite (count_filter_event _ outs (is_started_event qi (a_id a))). auto.
Qed.

Lemma silent_filter evs outs qi id : silent qi id (evs ++ outs) -> silent qi id (evs ++ filter is_event outs).
Proof.
  intros (A & B & C). unfold silent, cq, cs, cf in *. rewrite !count_ev_app in *.
  rewrite (count_filter_event _ outs (is_queued_ev_event qi id)),
          (count_filter_event _ outs (is_started_event qi id)),
          (count_filter_event _ outs (is_fin_ev_event qi id)). auto.
Qed.

Lemma einv_filter s evs outs : einv s (evs ++ outs) -> einv s (evs ++ filter is_event outs).
Proof.
  intros (E1 & E2). split.
  - intros qi q G. destruct (E1 _ _ G) as (A & B). split.
    + intros a Ha. apply evok_filter; auto.
    + intros id Hn. apply silent_filter; auto.
  - intros qi id G Hn. apply silent_filter; auto.
Qed.

Theorem reach_einv s g : Reach s g -> einv s (gh_events g).
Proof.
  induction 1 as [q0|s g o s' outs R IH H].
  - split; [intros qi q G; unfold get_queue in G; simpl in G; discriminate|].
    intros qi id _ _. unfold silent, cq, cs, cf; simpl. auto.
  - simpl. apply einv_filter. eapply step_einv; eauto using reach_sinv, index_exact.
Qed.

(** ** C18: AllocationQueued exactly once, AllocationStarted at most once, AllocationFinished
    exactly once for a finished allocation (none before), never a start after the finish *)
Theorem events_exact s g qi q a :
  Reach s g -> get_queue s qi = Some q -> In a (q_allocs q) ->
  events_ok (gh_events g) qi a = true
  /\ count_ev (is_queued_ev qi (a_id a)) (gh_events g) = 1
  /\ count_ev (is_started qi (a_id a)) (gh_events g) <= 1
  /\ count_ev (is_fin_ev qi (a_id a)) (gh_events g) = (if is_finished a then 1 else 0)
  /\ no_start_after_finish qi (a_id a) (gh_events g) = true.
Proof.
  intros R G Ha. destruct (reach_einv _ _ R) as (E1 & _). destruct (E1 _ _ G) as (A & _).
  pose proof (A _ Ha) as E. split; [now apply evok_events_ok|]. destruct E as (E & B & _ & D & F). auto.
Qed.

(** allocations that do not exist (yet) have no events *)
Theorem no_events_for_unknown s g qi q id :
  Reach s g -> get_queue s qi = Some q -> ~ In id (map a_id (q_allocs q)) ->
  count_ev (is_queued_ev qi id) (gh_events g) = 0 /\ count_ev (is_started qi id) (gh_events g) = 0
  /\ count_ev (is_fin_ev qi id) (gh_events g) = 0.
Proof.
  intros R G Hn. destruct (reach_einv _ _ R) as (E1 & _). destruct (E1 _ _ G) as (_ & B). apply (B _ Hn).
Qed.

(** the executable C18 state monitor holds on every reachable state (given a duplicate-free index) *)
Theorem c18_monitor_quiet s g :
  Reach s g -> forall qi q a, get_queue s qi = Some q -> In a (q_allocs q) ->
  exists ga, g_find qi (a_id a) (gh_allocs g) = Some ga /\ accounting_ok a ga = true
             /\ events_ok (gh_events g) qi a = true.
Proof.
  intros R qi q a G Ha. destruct (reach_ginv _ _ R _ _ _ G Ha) as (ga & F & A).
  exists ga. repeat split; auto. apply (events_exact _ _ _ _ _ R G Ha).
Qed.

(** * Non-vacuity: a concrete adversarial history *)
Fixpoint run_g (s : state) (g : ghost) (ops : list op) : res (state * ghost) :=
  match ops with
  | [] => Ok (s, g)
  | o :: r => match step s o with
              | Ok (s', outs) => run_g s' (ghost_step s o s' outs g) r
              | Disabled => Disabled
              | Panic x => Panic x
              end
  end.

Lemma run_g_reach ops : forall s g s' g', Reach s g -> run_g s g ops = Ok (s', g') -> Reach s' g'.
Proof.
  induction ops as [|o ops IH]; simpl; intros s g s' g' R H.
  - now inv H.
  - destruct (step s o) as [[s1 o1]| |] eqn:E; try discriminate. eapply IH; [|exact H]. eapply Reach_step; eauto.
Qed.

Definition ex18_ops : list op :=
  [ OAddQueue 2 2 None (Some ([0], 3, 3));
    OTick [1] [(4, 0, 0)] [(1, [SubOk 10; SubOk 11])];
    OLost 5 10 false;                    (* loss while queued, before any connect *)
    OConnect 5 10;                       (* connect after loss: must not count as connected *)
    OConnect 6 10; OConnect 6 10;        (* duplicate connect *)
    OConnect 9 99;                       (* unknown allocation *)
    OConnect 7 11; OLost 7 11 true; OLost 7 11 true; OConnect 8 11; OConnect 3 11;   (* duplicate loss, extra worker *)
    ORefresh [1] [(1, mkSW false [(11, XError); (10, XQueued)])];                     (* contradictory / failing reports *)
    OLost 8 11 false ].                  (* second distinct loss: allocation 11 (size 2) finishes *)

Example ex18_reach : exists s g, Reach s g
  /\ get_queue s 1 = Some (mkQ true 2 2 None
        [ mkAlloc 10 2 (Running 0 [6] [(5, false)]); mkAlloc 11 2 (Finished [(7, true); (8, false)]) ]
        (mkLim [0] 0 (Some 0) 0 3 0 3))
  /\ g_find 1 10 (gh_allocs g) = Some (mkG 1 10 [5; 6] [5])
  /\ g_find 1 11 (gh_allocs g) = Some (mkG 1 11 [7; 8; 3] [7; 8])
  /\ filter (fun o => about 1 11 o) (gh_events g) = [EvQueued 1 11 2; EvStarted 1 11; EvFinished 1 11]
  /\ mon_c18 s g = [].
Proof.
  destruct (run_g (init_state 1) init_ghost ex18_ops) as [[s g]| |] eqn:E; [|vm_compute in E; discriminate..].
  exists s, g. split; [eapply run_g_reach; [apply (Reach_init 1)|exact E]|].
  vm_compute in E. inv E. vm_compute. repeat split; reflexivity.
Qed.
