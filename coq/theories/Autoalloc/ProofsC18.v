(** C18 - allocation lifecycle is monotone and its worker accounting is exact. *)
From HQ Require Import Base.Prelude Gen.Consts Autoalloc.Model Autoalloc.Spec Autoalloc.Lemmas Autoalloc.Trans Autoalloc.ProofsC17.
Open Scope N_scope.

Lemma in_update_alloc id a' l b :
  In b (update_alloc id (fun _ => a') l) ->
  (b = a' /\ exists a, In a l /\ a_id a = id) \/ (In b l /\ a_id b <> id).
Proof.
  induction l as [|c l IH]; simpl; [tauto|].
  destruct (a_id c =? id) eqn:E; intros [H|H].
  - left. split; auto. exists c. apply N.eqb_eq in E. auto.
  - destruct (IH H) as [[H1 (a & Ha & Hid)]|[H1 H2]]; [left; split; eauto|right; auto].
  - right. subst. split; auto. intros Hid. rewrite Hid, N.eqb_refl in E. discriminate.
  - destruct (IH H) as [[H1 (a & Ha & Hid)]|[H1 H2]]; [left; split; eauto|right; auto].
Qed.

Lemma update_alloc_in_old id a' l a :
  In a l -> exists b, In b (update_alloc id (fun _ => a') l) /\ (if a_id a =? id then b = a' else b = a).
Proof.
  induction l as [|c l IH]; simpl; [tauto|]. intros [H|H].
  - subst. destruct (a_id a =? id) eqn:E; eexists; split; [left; reflexivity|reflexivity|left; reflexivity|reflexivity].
  - destruct (IH H) as (b & Hb & Hc). exists b. split; auto.
Qed.

Lemma update_alloc_const_ids id a' l :
  a_id a' = id -> map a_id (update_alloc id (fun _ => a') l) = map a_id l.
Proof.
  intros Hid. induction l as [|c l IH]; simpl; [reflexivity|]. rewrite IH.
  destruct (a_id c =? id) eqn:E; [apply N.eqb_eq in E; congruence|reflexivity].
Qed.

Lemma qprim_allocs ar q q' :
  qprim ar q q' -> ids_nodup q ->
  ids_nodup q' /\ forall a, In a (q_allocs q) -> exists a', In a' (q_allocs q') /\ alloc_trans a a'.
Proof.
  intros P ND. inv P; simpl.
  - destruct H0 as (Hid & Ht & Hr & Hf). split.
    + unfold ids_nodup; simpl. rewrite update_alloc_const_ids; auto.
      apply find_alloc_in in H. destruct H as [_ Hida]. congruence.
    + intros b Hb. destruct (update_alloc_in_old id a' _ _ Hb) as (c & Hc & Hcase).
      exists c. split; auto. destruct (a_id b =? id) eqn:E.
      * subst c. apply N.eqb_eq in E. apply find_alloc_in in H. destruct H as [Ha Hida].
        assert (b = a) by (eapply nodup_map_inj; eauto; congruence). subst b.
        unfold alloc_trans. auto.
      * subst c. apply alloc_trans_refl.
  - split; auto. intros a Ha. exists a. split; auto. apply alloc_trans_refl.
  - split.
    + unfold ids_nodup; simpl. rewrite map_app. simpl. apply nodup_snoc; auto.
      now apply find_alloc_none_notin.
    + intros a Ha. exists a. split; [apply in_or_app; auto|apply alloc_trans_refl].
  - split; auto. intros a Ha. exists a. split; auto. apply alloc_trans_refl.
  - split; auto. intros a Ha. exists a. split; auto. apply alloc_trans_refl.
Qed.

Lemma qtrans_allocs ar q q' :
  qtrans ar q q' -> ids_nodup q ->
  ids_nodup q' /\ forall a, In a (q_allocs q) -> exists a', In a' (q_allocs q') /\ alloc_trans a a'.
Proof.
  induction 1; intros ND.
  - split; auto. intros a Ha. exists a. split; auto. apply alloc_trans_refl.
  - destruct (IHqtrans ND) as [ND2 IH]. destruct (qprim_allocs _ _ _ H0 ND2) as [ND3 P].
    split; auto. intros a Ha. destruct (IH _ Ha) as (b & Hb & Tb). destruct (P _ Hb) as (c & Hc & Tc).
    exists c. split; auto. eapply alloc_trans_trans; eauto.
Qed.

Lemma in_find_alloc l a : NoDup (map a_id l) -> In a l -> find_alloc (a_id a) l = Some a.
Proof.
  induction l as [|c l IH]; simpl; [tauto|]. intros ND [H|H].
  - subst. unfold find_alloc; simpl. now rewrite N.eqb_refl.
  - inv ND. unfold find_alloc; simpl. destruct (a_id c =? a_id a) eqn:E.
    + apply N.eqb_eq in E. exfalso. apply H2. rewrite E. now apply in_map.
    + apply IH; auto.
Qed.

Lemma subset_refl l : subset l l = true.
Proof.
  unfold subset. apply forallb_forall. intros x Hx. unfold mem. apply existsb_exists.
  exists x. split; auto. apply N.eqb_refl.
Qed.

Lemma alloc_trans_step_ok a a' : alloc_trans a a' -> alloc_step_ok a a' = true.
Proof.
  intros (Hid & Ht & Hr & Hf). unfold alloc_step_ok.
  rewrite Hid, Ht, !N.eqb_refl. simpl.
  replace (rank (a_status a) <=? rank (a_status a')) with true by lia. simpl.
  destruct (is_finished a) eqn:Ef; auto. rewrite (Hf eq_refl).
  unfold is_finished in Ef. destruct (a_status a); simpl in Ef; try discriminate.
  - rewrite Nat.eqb_refl. simpl. apply (subset_refl (map fst disc)).
  - rewrite !Nat.eqb_refl, !subset_refl. simpl. destruct failed; reflexivity.
Qed.

(** ** C18: across ANY step every allocation of a surviving queue is still there, with the same
    id and size, a status that did not move backwards, and unchanged if it was finished *)
Theorem lifecycle_monotone s g o s' outs qi q a :
  Reach s g -> step s o = Ok (s', outs) -> get_queue s qi = Some q -> In a (q_allocs q) ->
  match get_queue s' qi with
  | Some q' => exists a', find_alloc (a_id a) (q_allocs q') = Some a'
                          /\ alloc_trans a a' /\ alloc_step_ok a a' = true
  | None => exists force, o = ORemove qi force
  end.
Proof.
  intros R H Hq Ha. pose proof (step_qtrans _ _ _ _ _ _ H Hq) as T.
  destruct (get_queue s' qi) as [q'|]; auto.
  destruct (sinv_get _ _ _ (reach_sinv _ _ R) Hq) as [_ ND].
  destruct (qtrans_allocs _ _ _ T ND) as [ND' P]. destruct (P _ Ha) as (a' & Ha' & Tr).
  exists a'. split; [|split; [exact Tr|now apply alloc_trans_step_ok]].
  destruct Tr as (Hid & _). rewrite <- Hid. now apply in_find_alloc.
Qed.

(** ** C18: workers naming an unknown allocation change nothing *)
Theorem unknown_allocation_noop s w a c :
  alookup a (s_index s) = None ->
  step s (OConnect w a) = Ok (s, [OutRet true]) /\ step s (OLost w a c) = Ok (s, [OutRet true]).
Proof. intros H. simpl. unfold worker_event. rewrite H. auto. Qed.

Lemma mem_true x l : mem x l = true <-> In x l.
Proof.
  unfold mem. rewrite existsb_exists. split.
  - intros (y & Hy & E). apply N.eqb_eq in E. now subst.
  - intros H. exists x. split; auto. apply N.eqb_refl.
Qed.

Lemma mem_false x l : mem x l = false <-> ~ In x l.
Proof. rewrite <- mem_true. destruct (mem x l); split; congruence. Qed.

Lemma subset_spec l1 l2 : subset l1 l2 = true <-> (forall x, In x l1 -> In x l2).
Proof.
  unfold subset. rewrite forallb_forall. split; intros H x Hx; [apply mem_true|apply mem_true]; auto.
Qed.

Lemma set_eq_spec l1 l2 : set_eq l1 l2 = true <-> (forall x, In x l1 <-> In x l2).
Proof.
  unfold set_eq. rewrite andb_true_iff, !subset_spec. split.
  - intros [H1 H2] x. split; auto.
  - intros H. split; intros x; apply H.
Qed.

Lemma in_diff x l1 l2 : In x (diff l1 l2) <-> In x l1 /\ ~ In x l2.
Proof. unfold diff. rewrite filter_In, negb_true_iff, mem_false. tauto. Qed.

Lemma in_add_set x y l : In x (add_set y l) <-> x = y \/ In x l.
Proof.
  unfold add_set. destruct (mem y l) eqn:E.
  - apply mem_true in E. split; [auto|intros [->|H]; auto].
  - rewrite in_app_iff. simpl. split; [intros [H|[H|[]]]; auto|intros [H|H]; auto].
Qed.

Lemma in_set_remove x w l : In x (set_remove w l) <-> In x l /\ x <> w.
Proof.
  unfold set_remove. rewrite filter_In, negb_true_iff, N.eqb_neq. tauto.
Qed.

Lemma nodup_set_remove w l : NoDup l -> NoDup (set_remove w l).
Proof. intros. unfold set_remove. now apply NoDup_filter. Qed.

Lemma nodup_add_set x l : NoDup l -> NoDup (add_set x l).
Proof.
  intros ND. unfold add_set. destruct (mem x l) eqn:E; auto.
  apply nodup_snoc; auto. now apply mem_false.
Qed.

(** [Set::insert] of the model is [add_set] of the specification *)
Lemma in_set_insert x w l : In x (set_insert w l) <-> x = w \/ In x l.
Proof. exact (in_add_set x w l). Qed.

Lemma nodup_set_insert w l : NoDup l -> NoDup (set_insert w l).
Proof. exact (nodup_add_set w l). Qed.

(** ... and so is [Map::insert] on the keys *)
Lemma map_insert_keys w c m : map fst (map_insert w c m) = add_set w (map fst m).
Proof.
  unfold add_set. induction m as [|[k v] m IH]; simpl; [reflexivity|].
  unfold mem in *. simpl. rewrite (N.eqb_sym w k).
  destruct (k =? w) eqn:E; simpl; [reflexivity|]. rewrite IH.
  destruct (existsb (N.eqb w) (map fst m)); reflexivity.
Qed.

Lemma in_map_insert_keys x w c m : In x (map fst (map_insert w c m)) <-> x = w \/ In x (map fst m).
Proof. rewrite map_insert_keys. apply in_add_set. Qed.

Lemma nodup_map_insert_keys w c m : NoDup (map fst m) -> NoDup (map fst (map_insert w c m)).
Proof. rewrite map_insert_keys. apply nodup_add_set. Qed.

Lemma disc_count_insert w c m :
  disc_count (map_insert w c m) = if mem w (map fst m) then disc_count m else disc_count m + 1.
Proof.
  unfold disc_count. rewrite <- (map_length fst (map_insert w c m)), map_insert_keys. unfold add_set.
  destruct (mem w (map fst m)); [now rewrite map_length|]. rewrite app_length, map_length. simpl. lia.
Qed.

Definition g_add_conn (w : wid) (x : galloc) : galloc := mkG (g_q x) (g_id x) (add_set w (g_conn x)) (g_lost x).
Definition g_add_lost (w : wid) (x : galloc) : galloc := mkG (g_q x) (g_id x) (g_conn x) (add_set w (g_lost x)).

Definition acc (a : alloc) (g : galloc) : Prop :=
  NoDup (g_lost g)
  /\ match a_status a with
     | Queued _ => g_conn g = [] /\ g_lost g = []
     | Running _ conn disc =>
         (forall x, In x conn <-> In x (g_conn g) /\ ~ In x (g_lost g)) /\ NoDup conn
         /\ (forall x, In x (map fst disc) <-> In x (g_lost g)) /\ NoDup (map fst disc)
         /\ disc_count disc < a_target a
     | Finished disc => NoDup (map fst disc) /\ disc_count disc = a_target a
     | FinishedU _ _ _ => True
     end.

Lemma accounting_ok_iff a g : accounting_ok a g = true <-> acc a g.
Proof.
  unfold accounting_ok, acc. rewrite andb_true_iff, nodupb_spec.
  destruct (a_status a) as [e|e conn disc|disc|conn disc f].
  - destruct (g_conn g), (g_lost g); split; intros [H1 H2]; split; auto; try discriminate;
      destruct H2; discriminate.
  - rewrite !andb_true_iff, !set_eq_spec, !nodupb_spec, N.ltb_lt. setoid_rewrite in_diff. tauto.
  - rewrite andb_true_iff, nodupb_spec, N.eqb_eq. tauto.
  - tauto.
Qed.

Lemma key_mem w (m : list (wid * bool)) : existsb (fun kv => fst kv =? w) m = true <-> In w (map fst m).
Proof.
  rewrite existsb_exists, in_map_iff. split; intros ([k v] & H1 & H2); exists (k, v); simpl in *.
  - apply N.eqb_eq in H2. auto.
  - subst. split; [assumption|apply N.eqb_refl].
Qed.

(** For a connect or a loss a queued allocation behaves as a running one that has seen no worker
    yet (the fix of F15 registers the start first); only the events differ. *)
Definition worker_reason (r : sync_reason) : Prop :=
  match r with RConnected _ | RLost _ _ => True | _ => False end.

Lemma sync_alloc_queued qi id tg e r a' evs fin :
  worker_reason r -> sync_alloc qi (mkAlloc id tg (Queued e)) r = (a', evs, fin) ->
  exists evs', sync_alloc qi (mkAlloc id tg (Running 0 [] [])) r = (a', evs', fin).
Proof.
  destruct r; try contradiction; intros _; unfold sync_alloc; simpl; intros H.
  - inv H. eexists. reflexivity.
  - destruct (_ =? tg); inv H; eexists; reflexivity.
Qed.

Lemma acc_queued id tg e g :
  1 <= tg -> acc (mkAlloc id tg (Queued e)) g -> acc (mkAlloc id tg (Running 0 [] [])) g.
Proof.
  intros Ht (HN & Ec & El). split; [exact HN|]. simpl. rewrite Ec, El.
  repeat split; try tauto; try constructor. unfold disc_count; simpl. lia.
Qed.

Lemma worker_accounting qi r f :
  worker_reason r ->
  (forall g, NoDup (g_lost g) -> NoDup (g_lost (f g))) ->
  (forall id tg e conn disc g a' evs fin, acc (mkAlloc id tg (Running e conn disc)) g ->
     sync_alloc qi (mkAlloc id tg (Running e conn disc)) r = (a', evs, fin) -> acc a' (f g)) ->
  forall a g a' evs fin, 1 <= a_target a -> accounting_ok a g = true ->
    sync_alloc qi a r = (a', evs, fin) -> accounting_ok a' (f g) = true.
Proof.
  intros Hr Hf Hrun [id tg st] g a' evs fin Ht. rewrite !accounting_ok_iff. intros Hacc H.
  destruct st as [e|e conn disc|disc|conn disc fl].
  - destruct (sync_alloc_queued _ _ _ _ _ _ _ _ Hr H) as [evs' H'].
    eapply Hrun; [|exact H']. now apply (acc_queued id tg e).
  - eapply Hrun; eauto.
  - destruct r; try contradiction; inv H; (split; [apply Hf|]; apply Hacc).
  - destruct r; try contradiction; inv H; (split; [apply Hf|]; apply Hacc).
Qed.

(** a connect notification keeps the accounting exact (after the fix of F15) *)
Lemma connect_accounting qi a w ga a' evs fin :
  1 <= a_target a -> accounting_ok a ga = true ->
  sync_alloc qi a (RConnected w) = (a', evs, fin) ->
  accounting_ok a' (g_add_conn w ga) = true.
Proof.
  apply (worker_accounting qi (RConnected w) (g_add_conn w) I); [auto|]. clear.
  intros id tg e conn disc g a' evs fin (HN & A & B & C & D & E) H. unfold sync_alloc in H; simpl in H.
  destruct (existsb (fun kv => fst kv =? w) disc) eqn:Ex; inv H; (split; [exact HN|]); simpl.
  - (* the worker was already lost *)
    apply key_mem, C in Ex. split; [|tauto]. intros x. rewrite A, in_add_set.
    split; [tauto|]. intros [[->|?] ?]; tauto.
  - assert (~ In w (g_lost g)) by (rewrite <- C, <- key_mem, Ex; discriminate).
    split; [|split; [now apply nodup_set_insert|tauto]]. intros x. rewrite in_set_insert, A, in_add_set.
    split; [intros [->|[? ?]]; auto|intros [[->|?] ?]; auto].
Qed.

(** a loss notification keeps the accounting exact and finishes the allocation exactly when the
    number of distinct lost workers reaches the target *)
Lemma lost_accounting qi a w c ga a' evs fin :
  1 <= a_target a -> accounting_ok a ga = true ->
  sync_alloc qi a (RLost w c) = (a', evs, fin) ->
  accounting_ok a' (g_add_lost w ga) = true.
Proof.
  apply (worker_accounting qi (RLost w c) (g_add_lost w) I); [intros g; apply nodup_add_set|]. clear.
  intros id tg e conn disc g a' evs fin (HN & A & B & C & D & E) H. unfold sync_alloc in H; simpl in H.
  pose proof (disc_count_insert w c disc) as Hc.
  destruct (disc_count (map_insert w c disc) =? tg) eqn:Eq; inv H; (split; [now apply nodup_add_set|]); simpl.
  - split; [now apply nodup_map_insert_keys|now apply N.eqb_eq].
  - split; [intros x; rewrite in_set_remove, A, in_add_set; tauto|].
    split; [now apply nodup_set_remove|].
    split; [intros x; rewrite in_map_insert_keys, in_add_set, C; tauto|].
    split; [now apply nodup_map_insert_keys|].
    simpl in E. clear - E Eq Hc. destruct (mem w (map fst disc)); lia.
Qed.

(** external status reports and status errors do not touch the worker sets *)
Lemma ext_accounting qi a r ga a' evs fin :
  1 <= a_target a -> accounting_ok a ga = true ->
  (r = RExtQueued \/ r = RExtRunning \/ r = RExtFinished \/ r = RExtFailed) ->
  sync_alloc qi a r = (a', evs, fin) -> accounting_ok a' ga = true.
Proof.
  intros Ht Hacc Hr H. unfold sync_alloc in H. destruct a as [id tg st]. simpl in *.
  unfold accounting_ok in *. apply andb_true_iff in Hacc. destruct Hacc as [HN Hacc].
  apply andb_true_iff. split; [exact HN|]. simpl in *.
  destruct Hr as [ -> | [ -> | [ -> | -> ] ] ]; destruct st; inv H; simpl; auto.
  destruct (g_conn ga); [|discriminate]. destruct (g_lost ga); [|discriminate].
  simpl. unfold disc_count; simpl. lia.
Qed.

Lemma bump_accounting qi a ga a' evs :
  accounting_ok a ga = true -> increase_status_error_counter qi a = (a', evs) -> accounting_ok a' ga = true.
Proof.
  intros Hacc H. unfold increase_status_error_counter in H. destruct a as [id tg st]. simpl in *.
  unfold accounting_ok in *. apply andb_true_iff in Hacc. destruct Hacc as [HN Hacc].
  apply andb_true_iff. split; [exact HN|]. simpl in *.
  destruct st; simpl in H;
    repeat match type of H with context [if ?c then _ else _] => destruct c end;
    inv H; simpl; auto.
Qed.

Definition ginv (s : state) (g : ghost) : Prop :=
  forall qi q a, get_queue s qi = Some q -> In a (q_allocs q) ->
    exists ga, g_find qi (a_id a) (gh_allocs g) = Some ga /\ accounting_ok a ga = true.

Definition acc_imp (a b : alloc) : Prop :=
  forall ga, accounting_ok a ga = true -> accounting_ok b ga = true.

(** every allocation of [s'] stems from an allocation of [s] with the same key whose accounting
    carries over (no worker notification, no new allocation in between) *)
Definition spres (s s' : state) : Prop :=
  forall qi q' b, get_queue s' qi = Some q' -> In b (q_allocs q') ->
    exists q a, get_queue s qi = Some q /\ In a (q_allocs q) /\ a_id a = a_id b /\ acc_imp a b.

Lemma spres_refl s : spres s s.
Proof. intros qi q b G Hb. exists q, b. repeat split; auto. intros ga; auto. Qed.

Lemma spres_trans s1 s2 s3 : spres s1 s2 -> spres s2 s3 -> spres s1 s3.
Proof.
  intros H1 H2 qi q3 c G Hc. destruct (H2 _ _ _ G Hc) as (q2 & b & G2 & Hb & Hid & Hi).
  destruct (H1 _ _ _ G2 Hb) as (q1 & a & G1 & Ha & Hid1 & Hi1).
  exists q1, a. repeat split; auto; [congruence|]. intros ga Hg. auto.
Qed.

Lemma ginv_frame s s' g g' : spres s s' -> gh_allocs g' = gh_allocs g -> ginv s g -> ginv s' g'.
Proof.
  intros P E I qi q' b G Hb. destruct (P _ _ _ G Hb) as (q & a & G0 & Ha & Hid & Hi).
  destruct (I _ _ _ G0 Ha) as (ga & F & A). exists ga. rewrite E, <- Hid. split; auto.
Qed.

Definition qpres (q q' : queue) : Prop :=
  forall b, In b (q_allocs q') -> exists a, In a (q_allocs q) /\ a_id a = a_id b /\ acc_imp a b.

Lemma qpres_refl q : qpres q q.
Proof. intros b Hb. exists b. repeat split; auto. intros ga; auto. Qed.
Lemma qpres_trans a b c : qpres a b -> qpres b c -> qpres a c.
Proof.
  intros H1 H2 z Hz. destruct (H2 _ Hz) as (y & Hy & Hid & Hi). destruct (H1 _ Hy) as (x & Hx & Hid' & Hi').
  exists x. repeat split; auto; [congruence|]. intros ga Hg; auto.
Qed.

Lemma qpres_same_allocs q q' : q_allocs q' = q_allocs q -> qpres q q'.
Proof. intros E b Hb. exists b. rewrite <- E. repeat split; auto. intros ga; auto. Qed.

Lemma spres_set_queue s qj v v0 :
  get_queue s qj = Some v0 -> qpres v0 v -> spres s (set_queue s qj v).
Proof.
  intros G P qi q' b G' Hb. destruct (N.eq_dec qi qj) as [->|Hne].
  - rewrite (get_queue_set_queue_same _ _ _ _ G) in G'. inv G'.
    destruct (P _ Hb) as (a & Ha & Hid & Hi). exists v0, a. auto.
  - rewrite get_queue_set_queue_other in G'; auto. exists q', b. repeat split; auto. intros ga; auto.
Qed.

Definition sizes_pos (q : queue) : Prop := forall a, In a (q_allocs q) -> 1 <= a_target a.

Lemma qinv2_sizes_pos q : qinv2 q -> sizes_pos q.
Proof.
  intros [(_ & _ & Hs & _) _] a Ha. rewrite forallb_forall in Hs. specialize (Hs _ Ha).
  unfold size_ok in Hs. lia.
Qed.

Lemma update_qpres q id a a' :
  find_alloc id (q_allocs q) = Some a -> ids_nodup q -> acc_imp a a' -> a_id a' = a_id a ->
  qpres q (set_allocs (update_alloc id (fun _ => a') (q_allocs q)) q).
Proof.
  intros Hf ND Hi Hid b Hb. simpl in Hb. apply in_update_alloc in Hb.
  apply find_alloc_in in Hf. destruct Hf as [Ha Hida].
  destruct Hb as [[-> _]|[Hb Hne]].
  - exists a. auto.
  - exists b. repeat split; auto. intros ga; auto.
Qed.

Lemma is_ext r : (exists w, r = RConnected w) \/ (exists w c, r = RLost w c)
                 \/ (r = RExtQueued \/ r = RExtRunning \/ r = RExtFinished \/ r = RExtFailed).
Proof. destruct r; eauto 6. Qed.

Lemma reason_of_ext x r : reason_of x = Some r ->
  r = RExtQueued \/ r = RExtRunning \/ r = RExtFinished \/ r = RExtFailed.
Proof. destruct x; simpl; intros H; inv H; auto. Qed.

Lemma sync_allocation_status_ext_qpres qi q id x r q' outs :
  reason_of x = Some r -> qinv2 q -> sync_allocation_status qi q id r = (q', outs) -> qpres q q'.
Proof.
  intros Hr Hq H. apply sync_allocation_status_spec in H.
  destruct (find_alloc id (q_allocs q)) as [a|] eqn:Ef; [|destruct H as [-> _]; apply qpres_refl].
  destruct H as (a' & evs & fin & Es & -> & _).
  eapply qpres_trans; [|apply qpres_same_allocs; reflexivity].
  eapply update_qpres; eauto; [apply Hq| |apply (sync_alloc_trans _ _ _ _ _ _ Es)].
  intros ga Hg. apply (ext_accounting qi a r ga a' evs fin); eauto using reason_of_ext.
  apply (qinv2_sizes_pos _ Hq). now apply find_alloc_in in Ef.
Qed.

Lemma bump_qpres qi q id q' outs : qinv2 q -> bump qi q id = (q', outs) -> qpres q q'.
Proof.
  intros Hq H. apply bump_spec in H.
  destruct (find_alloc id (q_allocs q)) as [a|] eqn:Ef; [|destruct H as [-> _]; apply qpres_refl].
  destruct H as (a' & Ei & ->). eapply update_qpres; eauto; [apply Hq| |apply (bump_trans _ _ _ _ Ei)].
  intros ga Hg. eapply bump_accounting; eauto.
Qed.

Definition qkeeps (q : queue) (_ : list out) (q' : queue) : Prop := qinv2 q -> queue_le q q' /\ qpres q q'.

Lemma qkeeps_app q1 o1 q2 o2 q3 : qkeeps q1 o1 q2 -> qkeeps q2 o2 q3 -> qkeeps q1 (o1 ++ o2) q3.
Proof.
  intros H1 H2 Hq. destruct (H1 Hq) as [L1 P1]. destruct (H2 (queue_le_qinv2 _ _ L1 Hq)) as [L2 P2].
  eauto using queue_le_trans, qpres_trans.
Qed.

Lemma refresh_queue_allocations_spres s qj w s' outs :
  sinv s -> refresh_queue_allocations s qj w = Ok (s', outs) -> spres s s'.
Proof.
  intros Hs H. apply refresh_queue_allocations_spec in H.
  destruct H as [(-> & _)|(q & sw & q' & Eq & -> & Hl)]; [apply spres_refl|].
  eapply spres_set_queue; eauto.
  cut (qkeeps q outs q'); [intros K; apply K; eapply sinv_get; eauto|].
  assert (B : forall q id q' o, bump qj q id = (q', o) -> qkeeps q o q').
  { intros ? ? ? ? Hb Hq. split; [eapply bump_le|eapply bump_qpres]; eauto. apply Hq. }
  revert Hl. destruct (sw_err sw).
  - apply (refresh_err_loop_ind qj qkeeps); eauto using qkeeps_app.
    intros ? _. split; [apply queue_le_refl|apply qpres_refl].
  - apply (refresh_loop_ind qj qkeeps); eauto using qkeeps_app.
    + intros ? _. split; [apply queue_le_refl|apply qpres_refl].
    + intros ? ? ? ? ? ? Hr Hy Hq. split; [eapply sync_allocation_status_le|eapply sync_allocation_status_ext_qpres]; eauto.
      apply Hq.
Qed.

Lemma periodic_loop_spres order s wits s' outs :
  sinv s -> periodic_loop s order wits = Ok (s', outs) -> spres s s'.
Proof.
  intros Hs H. cut (sinv s -> sinv s' /\ spres s s'); [tauto|]. revert H.
  apply (periodic_loop_ind (fun s _ s' => sinv s -> sinv s' /\ spres s s')).
  - intros ? ?. split; [assumption|apply spres_refl].
  - intros s1 o1 s2 o2 s3 H1 H2 I1. destruct (H1 I1) as [I2 P1]. destruct (H2 I2) as [I3 P2].
    eauto using spres_trans.
  - intros ? ? ? ? ? Hr I. eauto using refresh_queue_allocations_sinv, refresh_queue_allocations_spres.
Qed.

Lemma status_events_no_new outs : status_events outs -> new_gallocs outs = [].
Proof. induction 1 as [|o l Ho _ IH]; simpl; auto. destruct o; simpl in *; auto; contradiction. Qed.

Lemma new_gallocs_ret b outs : new_gallocs (OutRet b :: outs) = new_gallocs outs.
Proof. reflexivity. Qed.

Lemma g_find_update q id q0 id0 f l :
  (forall x, g_q (f x) = g_q x /\ g_id (f x) = g_id x) ->
  g_find q id (g_update q0 id0 f l) =
  if (q =? q0) && (id =? id0) then option_map f (g_find q id l) else g_find q id l.
Proof.
  intros Hf. unfold g_find, g_update. induction l as [|x l IH]; simpl; [destruct (_ && _); reflexivity|].
  destruct (Hf x) as [Hq Hi].
  destruct ((g_q x =? q) && (g_id x =? id)) eqn:T.
  - apply andb_true_iff in T. destruct T as [T1 T2]. apply N.eqb_eq in T1, T2. subst q id.
    destruct ((g_q x =? q0) && (g_id x =? id0)) eqn:M; simpl.
    + rewrite Hq, Hi, !N.eqb_refl. reflexivity.
    + rewrite !N.eqb_refl. reflexivity.
  - destruct ((g_q x =? q0) && (g_id x =? id0)) eqn:M; simpl.
    + rewrite Hq, Hi, T. exact IH.
    + rewrite T. exact IH.
Qed.

Lemma g_find_update_other q id q0 id0 f l :
  (forall x, g_q (f x) = g_q x /\ g_id (f x) = g_id x) ->
  (q <> q0 \/ id <> id0) -> g_find q id (g_update q0 id0 f l) = g_find q id l.
Proof.
  intros Hf Hne. rewrite g_find_update; auto.
  destruct ((q =? q0) && (id =? id0)) eqn:E; auto.
  apply andb_true_iff in E. destruct E as [E1 E2]. apply N.eqb_eq in E1, E2. tauto.
Qed.

Lemma g_add_conn_keys w x : g_q (g_add_conn w x) = g_q x /\ g_id (g_add_conn w x) = g_id x.
Proof. split; reflexivity. Qed.
Lemma g_add_lost_keys w x : g_q (g_add_lost w x) = g_q x /\ g_id (g_add_lost w x) = g_id x.
Proof. split; reflexivity. Qed.

Lemma ginv_worker_event s g id r s' outs f allocs' :
  sinv s -> ginv s g ->
  worker_event s id r = (s', outs) ->
  (forall x, g_q (f x) = g_q x /\ g_id (f x) = g_id x) ->
  (forall qi a ga a' evs fin, 1 <= a_target a -> accounting_ok a ga = true ->
      sync_alloc qi a r = (a', evs, fin) -> accounting_ok a' (f ga) = true) ->
  allocs' = match alookup id (s_index s) with
            | Some q => g_update q id f (gh_allocs g)
            | None => gh_allocs g
            end ->
  forall g', gh_allocs g' = allocs' -> ginv s' g'.
Proof.
  intros Hs I H Hf Hcore -> g' Eg. apply worker_event_spec in H.
  destruct H as [(-> & _ & Hno)|(qj & qv & qv' & Ei & Eq & Es & ->)].
  { intros qi q a G Ha. rewrite Eg. destruct (I _ _ _ G Ha) as (ga & F & A). exists ga. split; auto.
    destruct (alookup id (s_index s)) as [qj|]; auto. rewrite g_find_update_other; auto.
    left. intros ->. congruence. }
  rewrite Ei in Eg.
  pose proof (sinv_get _ _ _ Hs Eq) as Hqv.
  intros qi q b G Hb. rewrite Eg.
  destruct (N.eq_dec qi qj) as [->|Hne].
  2:{ rewrite get_queue_set_queue_other in G; auto. destruct (I _ _ _ G Hb) as (ga & F & A).
      exists ga. split; auto. rewrite g_find_update_other; auto. }
  rewrite (get_queue_set_queue_same _ _ _ _ Eq) in G. inv G.
  apply sync_allocation_status_spec in Es.
  destruct (find_alloc id (q_allocs qv)) as [a|] eqn:Ef.
  2:{ destruct Es as [-> _]. destruct (I _ _ _ Eq Hb) as (ga & F & A). exists ga. split; auto.
      rewrite g_find_update_other; auto. right. intros E.
      apply find_alloc_none_notin in Ef. apply Ef. rewrite <- E. now apply in_map. }
  destruct Es as (a' & evs & fin & Esa & -> & _). apply in_update_alloc in Hb.
  pose proof (find_alloc_in _ _ _ Ef) as [Ha Hida].
  destruct Hb as [[-> _]|[Hb Hnid]].
  - destruct (I _ _ _ Eq Ha) as (ga & F & A). exists (f ga). split.
    + pose proof (sync_alloc_trans _ _ _ _ _ _ Esa) as (Hid' & _).
      rewrite g_find_update; auto. rewrite Hid', Hida, !N.eqb_refl. simpl. rewrite <- Hida, F. reflexivity.
    + eapply Hcore; eauto. apply (qinv2_sizes_pos _ Hqv). exact Ha.
  - destruct (I _ _ _ Eq Hb) as (ga & F & A). exists ga. split; auto.
    rewrite g_find_update_other; auto.
Qed.

Lemma find_alloc_app id l1 l2 :
  find_alloc id (l1 ++ l2) = match find_alloc id l1 with Some a => Some a | None => find_alloc id l2 end.
Proof.
  unfold find_alloc. induction l1 as [|a l IH]; simpl; auto. destruct (a_id a =? id); auto.
Qed.
Lemma submit_loop_shape qi permit script q idx q2 idx2 outs sc :
  submit_loop qi permit script q idx = Ok (q2, idx2, outs, sc) ->
  exists news, q_allocs q2 = q_allocs q ++ news
    /\ (forall a, In a news -> a_status a = Queued 0 /\ In (EvQueued qi (a_id a) (a_target a)) outs
                              /\ find_alloc (a_id a) (q_allocs q) = None /\ alookup (a_id a) idx = None)
    /\ (forall q' id n, In (EvQueued q' id n) outs -> q' = qi /\ In id (map a_id news))
    /\ idx2 = rev (map (fun a => (a_id a, qi)) news) ++ idx
    /\ NoDup (map a_id news).
Proof.
  apply (submit_loop_ind qi (fun _ q idx outs q2 idx2 => exists news, q_allocs q2 = q_allocs q ++ news
    /\ (forall a, In a news -> a_status a = Queued 0 /\ In (EvQueued qi (a_id a) (a_target a)) outs
                              /\ find_alloc (a_id a) (q_allocs q) = None /\ alookup (a_id a) idx = None)
    /\ (forall q' id n, In (EvQueued q' id n) outs -> q' = qi /\ In id (map a_id news))
    /\ idx2 = rev (map (fun a => (a_id a, qi)) news) ++ idx
    /\ NoDup (map a_id news))); clear.
  - intros q idx. exists []. rewrite app_nil_r. repeat split; auto; try (intros; contradiction); constructor.
  - intros n rest q idx id outs q2 idx2 Ei Ef (news & Hall & Hnew & Hev & Hidx & Hnd). simpl in *.
    exists (new_alloc id n :: news). repeat split.
    + rewrite Hall, <- app_assoc. reflexivity.
    + destruct H as [<-|H]; [reflexivity|apply (Hnew _ H)].
    + destruct H as [<-|H]; [simpl; auto|]. right. right. apply (Hnew _ H).
    + destruct H as [<-|H]; [exact Ef|].
      destruct (Hnew _ H) as (_ & _ & Hf & _).
      rewrite find_alloc_app in Hf. destruct (find_alloc (a_id a) (q_allocs q)); [discriminate|reflexivity].
    + destruct H as [<-|H]; [exact Ei|].
      destruct (Hnew _ H) as (_ & _ & _ & Hl). simpl in Hl.
      destruct (id =? a_id a); [discriminate|exact Hl].
    + destruct H as [H|[H|H]]; [discriminate|inv H; reflexivity|apply (Hev _ _ _ H)].
    + destruct H as [H|[H|H]]; [discriminate|inv H; simpl; auto|]. simpl. right. apply (Hev _ _ _ H).
    + rewrite Hidx. simpl. rewrite <- app_assoc. reflexivity.
    + simpl. constructor; auto. intros Hin. apply in_map_iff in Hin. destruct Hin as (a & Ha & Hin).
      destruct (Hnew _ Hin) as (_ & _ & Hf & _). rewrite Ha in Hf.
      rewrite find_alloc_app in Hf. destruct (find_alloc id (q_allocs q)); [discriminate|].
      unfold find_alloc in Hf. simpl in Hf. rewrite N.eqb_refl in Hf. discriminate.
  - intros n rest q idx. exists []. rewrite app_nil_r. repeat split; auto; try (intros; contradiction); try constructor;
      match goal with H : In _ [_] |- _ => destruct H as [H|[]]; discriminate end.
Qed.

Definition grows (s s' : state) (outs : list out) : Prop :=
  (forall qi q' b, get_queue s' qi = Some q' -> In b (q_allocs q') ->
      (exists q, get_queue s qi = Some q /\ In b (q_allocs q))
      \/ (a_status b = Queued 0 /\ exists n, In (EvQueued qi (a_id b) n) outs))
  /\ (forall qi id n q b, In (EvQueued qi id n) outs -> get_queue s qi = Some q -> In b (q_allocs q) -> a_id b <> id)
  /\ (forall qi q b, get_queue s qi = Some q -> In b (q_allocs q) ->
        exists q', get_queue s' qi = Some q' /\ In b (q_allocs q')).

Lemma grows_refl s : grows s s [].
Proof. repeat split; intros; eauto; contradiction. Qed.

Lemma grows_trans s1 s2 s3 o1 o2 : grows s1 s2 o1 -> grows s2 s3 o2 -> grows s1 s3 (o1 ++ o2).
Proof.
  intros (A1 & A2 & A3) (B1 & B2 & B3). repeat split.
  - intros qi q' b G Hb. destruct (B1 _ _ _ G Hb) as [(q2 & G2 & Hb2)|(St & n & Hn)].
    + destruct (A1 _ _ _ G2 Hb2) as [?|(St & n & Hn)]; auto.
      right. split; auto. exists n. apply in_or_app. auto.
    + right. split; auto. exists n. apply in_or_app. auto.
  - intros qi id n q b Hin G Hb. apply in_app_or in Hin. destruct Hin as [Hin|Hin]; [eauto|].
    destruct (A3 _ _ _ G Hb) as (q2 & G2 & Hb2). eauto.
  - intros qi q b G Hb. destruct (A3 _ _ _ G Hb) as (q2 & G2 & Hb2). eauto.
Qed.

Lemma grows_same_allocs s s' :
  (forall qi, option_map q_allocs (get_queue s' qi) = option_map q_allocs (get_queue s qi)) -> grows s s' [].
Proof.
  intros H. repeat split.
  - intros qi q' b G Hb. left. specialize (H qi). rewrite G in H. simpl in H.
    destruct (get_queue s qi) as [q|]; [|discriminate]. inv H. exists q. rewrite <- H1. auto.
  - intros; contradiction.
  - intros qi q b G Hb. specialize (H qi). rewrite G in H. simpl in H.
    destruct (get_queue s' qi) as [q'|]; [|discriminate]. inv H. exists q'. rewrite H1. auto.
Qed.

Lemma try_pause_queue_allocs now q : q_allocs (try_pause_queue now q) = q_allocs q.
Proof.
  unfold try_pause_queue. destruct (negb (q_active q)); auto.
  destruct (submission_status now (q_lim q)); auto.
Qed.

Lemma try_pause_all_grows s : grows s (try_pause_all s) [].
Proof.
  apply grows_same_allocs. intros qi. rewrite get_queue_try_pause_all.
  destruct (get_queue s qi); simpl; auto. now rewrite try_pause_queue_allocs.
Qed.

Lemma queue_try_submit_grows s qj r script s' outs sc :
  queue_try_submit s qj r script = Ok (s', outs, sc) -> grows s s' outs.
Proof.
  intros H. apply queue_try_submit_spec in H.
  destruct H as [(-> & -> & _)|(q & permit & q1 & idx1 & Eq & _ & _ & _ & _ & _ & Hl & ->)]; [apply grows_refl|].
  destruct (submit_loop_shape _ _ _ _ _ _ _ _ _ Hl) as (news & Hall & Hnew & Hev & _ & _). simpl in Hall.
  pose proof (fun qi => get_queue_update_queue s qj q1 q idx1 qi Eq) as G1.
  repeat split.
  - intros qi q' b G Hb. rewrite G1 in G. destruct (qi =? qj) eqn:E; [|left; eauto].
    apply N.eqb_eq in E. subst qi. inv G. rewrite Hall in Hb. apply in_app_or in Hb.
    destruct Hb as [Hb|Hb]; [left; eauto|]. right. destruct (Hnew _ Hb) as (St & Hin & _). eauto.
  - intros qi id n q0 b Hin G Hb. destruct (Hev _ _ _ Hin) as [-> Hid].
    rewrite Eq in G. inv G. apply in_map_iff in Hid. destruct Hid as (a & Ha & Hia).
    destruct (Hnew _ Hia) as (_ & _ & Hf & _). intros E. apply find_alloc_none_notin in Hf.
    apply Hf. rewrite Ha, <- E. now apply in_map.
  - intros qi q0 b G Hb. rewrite G1. destruct (qi =? qj) eqn:E; [|eauto].
    apply N.eqb_eq in E. subst qi. rewrite Eq in G. inv G. exists q1. split; auto.
    rewrite Hall. apply in_or_app. auto.
Qed.

Lemma perform_submits_grows s order resps scripts s' outs :
  perform_submits s order resps scripts = Ok (s', outs) -> grows s s' outs.
Proof.
  intros H. apply perform_submits_spec in H.
  destruct H as [_ [(_ & -> & ->)|(s2 & _ & Hq & ->)]]; [apply try_pause_all_grows|].
  rewrite <- (app_nil_r outs). apply (grows_trans _ _ _ [] _ (try_pause_all_grows s)).
  eapply grows_trans; [|apply try_pause_all_grows]. revert Hq.
  apply (submit_queues_ind (fun s o s' => grows s s' o)); eauto using grows_refl, grows_trans, queue_try_submit_grows.
Qed.

Lemma g_find_new_none q id outs l :
  (forall n, ~ In (EvQueued q id n) outs) -> g_find q id (new_gallocs outs ++ l) = g_find q id l.
Proof.
  unfold g_find. induction outs as [|o outs IH]; simpl; intros H; auto.
  assert (H' : forall n, ~ In (EvQueued q id n) outs) by (intros n Hn; apply (H n); auto).
  destruct o; simpl; auto.
  destruct ((q0 =? q) && (a =? id)) eqn:E; auto.
  apply andb_true_iff in E. destruct E as [E1 E2]. apply N.eqb_eq in E1, E2. subst.
  exfalso. apply (H n). auto.
Qed.

Lemma g_find_new_some q id n outs l :
  In (EvQueued q id n) outs -> g_find q id (new_gallocs outs ++ l) = Some (mkG q id [] []).
Proof.
  unfold g_find. induction outs as [|o outs IH]; simpl; intros H; [contradiction|].
  destruct H as [->|H].
  - simpl. now rewrite !N.eqb_refl.
  - destruct o; simpl; auto.
    destruct ((q0 =? q) && (a =? id)) eqn:E; auto.
    apply andb_true_iff in E. destruct E as [E1 E2]. apply N.eqb_eq in E1, E2. now subst.
Qed.

Lemma ginv_grows s s' outs g g' :
  grows s s' outs -> gh_allocs g' = new_gallocs outs ++ gh_allocs g -> ginv s g -> ginv s' g'.
Proof.
  intros (A1 & A2 & _) Eg I qi q' b G Hb. rewrite Eg.
  destruct (A1 _ _ _ G Hb) as [(q & G0 & Hb0)|(St & n & Hn)].
  - destruct (I _ _ _ G0 Hb0) as (ga & F & A). exists ga. split; auto.
    rewrite g_find_new_none; auto. intros n Hn. apply (A2 _ _ _ _ _ Hn G0 Hb0). reflexivity.
  - exists (mkG qi (a_id b) [] []). split; [eapply g_find_new_some; eauto|].
    unfold accounting_ok. rewrite St. reflexivity.
Qed.

Lemma spres_same_allocs s s' :
  (forall qi q', get_queue s' qi = Some q' -> exists q, get_queue s qi = Some q /\ q_allocs q' = q_allocs q) ->
  spres s s'.
Proof.
  intros H qi q' b G Hb. destruct (H _ _ G) as (q & G0 & E). exists q, b. rewrite <- E.
  repeat split; auto. intros ga; auto.
Qed.

Lemma step_ginv s o s' outs g :
  step s o = Ok (s', outs) -> sinv s -> ginv s g -> ginv s' (ghost_step s o s' outs g).
Proof.
  intros H. revert H g.
  apply (step_cases (fun s o outs s' => forall g, sinv s -> ginv s g -> ginv s' (ghost_step s o s' outs g))); clear.
  - intros s o b Ho g _. apply ginv_frame; [apply spres_refl|]. now destruct o.
  - intros s backlog mwpa maxw lim l _ g _. apply ginv_frame; [|reflexivity]. intros qi q' b G Hb.
    destruct (get_queue_add_queue _ _ _ _ _ _ _ G) as [G0|E]; [|rewrite E in Hb; destruct Hb].
    exists q', b. repeat split; auto. intros ga; auto.
  - intros s order resps scripts s' outs H g _. eapply ginv_grows; [eapply perform_submits_grows; eauto|reflexivity].
  - intros s q r script s' outs sc H g _. eapply ginv_grows; [eapply queue_try_submit_grows; eauto|reflexivity].
  - intros s order wits s' outs H g Hs. apply ginv_frame; [eapply periodic_loop_spres; eauto|].
    simpl. now rewrite (status_events_no_new _ (periodic_loop_status_events _ _ _ _ _ H)).
  - intros s o a r s' outs Ho Ew g Hs IH.
    assert (E : new_gallocs outs = []) by apply (status_events_no_new _ (worker_event_status_events _ _ _ _ _ Ew)).
    destruct o; inv Ho.
    + apply (ginv_worker_event s g a (RConnected w) s' outs (g_add_conn w) _ Hs IH Ew (g_add_conn_keys w)
               (fun qi a0 ga => connect_accounting qi a0 w ga) eq_refl).
      simpl. now rewrite E.
    + apply (ginv_worker_event s g a (RLost w crashed) s' outs (g_add_lost w) _ Hs IH Ew (g_add_lost_keys w)
               (fun qi a0 ga => lost_accounting qi a0 w crashed ga) eq_refl).
      simpl. now rewrite E.
  - intros s o q v f Hf Eq g _. apply ginv_frame.
    + eapply spres_set_queue; eauto. apply qpres_same_allocs. now destruct Hf as [[_ ->]|[_ ->]].
    + now destruct Hf as [[-> _]|[-> _]].
  - intros s q force v idx _ _ g _. apply ginv_frame.
    + apply spres_same_allocs. intros qi q' G. rewrite get_queue_remove in G.
      destruct (qi =? q); [discriminate|eauto].
    + assert (E : forall l, new_gallocs (map (fun a => OutRemove q (a_id a)) l ++ [EvQueueRemoved q]) = []).
      { induction l; simpl; auto. }
      unfold ghost_step. cbn [gh_allocs new_gallocs]. now rewrite E.
  - intros s d g _. apply ginv_frame; [|reflexivity]. apply spres_same_allocs. intros qi q' G. eauto.
Qed.

(** ** C18: in every reachable state the accounting of every allocation agrees with its history *)
Theorem reach_ginv s g : Reach s g -> ginv s g.
Proof.
  induction 1 as [q0|s g o s' outs R IH H].
  - intros qi q a G. unfold get_queue in G. simpl in G. discriminate.
  - eapply step_ginv; eauto using reach_sinv.
Qed.

(** ** C18: while an allocation runs its connected workers are exactly those that connected from
    it and have not been lost; its disconnected workers are exactly those lost from it *)
Theorem connected_exact s g qi q a e conn disc :
  Reach s g -> get_queue s qi = Some q -> In a (q_allocs q) -> a_status a = Running e conn disc ->
  exists ga, g_find qi (a_id a) (gh_allocs g) = Some ga
    /\ (forall w, In w conn <-> In w (g_conn ga) /\ ~ In w (g_lost ga))
    /\ NoDup conn
    /\ (forall w, In w (map fst disc) <-> In w (g_lost ga))
    /\ NoDup (map fst disc).
Proof.
  intros R G Ha St. destruct (reach_ginv _ _ R _ _ _ G Ha) as (ga & F & A).
  exists ga. split; auto. apply accounting_ok_iff in A. unfold acc in A. rewrite St in A. tauto.
Qed.

From Coq Require Import Permutation.

Lemma nodup_set_eq_length (l1 l2 : list N) :
  NoDup l1 -> NoDup l2 -> (forall x, In x l1 <-> In x l2) -> length l1 = length l2.
Proof. intros N1 N2 H. apply Permutation_length. now apply NoDup_Permutation. Qed.

(** ** C18: a running allocation has fewer distinct lost workers than its size, a normally
    finished one exactly as many *)
Theorem finish_iff_all_lost_state s g qi q a :
  Reach s g -> get_queue s qi = Some q -> In a (q_allocs q) ->
  exists ga, g_find qi (a_id a) (gh_allocs g) = Some ga /\ NoDup (g_lost ga)
    /\ match a_status a with
       | Queued _ => g_lost ga = [] /\ g_conn ga = []
       | Running _ _ disc => N.of_nat (length (g_lost ga)) < a_target a /\ length disc = length (g_lost ga)
       | Finished disc => N.of_nat (length disc) = a_target a /\ NoDup (map fst disc)
       | FinishedU _ _ _ => True
       end.
Proof.
  intros R G Ha. destruct (reach_ginv _ _ R _ _ _ G Ha) as (ga & F & A).
  exists ga. split; auto. apply accounting_ok_iff in A. destruct A as [HN A]. split; auto.
  destruct (a_status a) as [e|e conn disc|disc|conn disc f]; [tauto| |tauto|auto].
  destruct A as (_ & _ & C & D & E).
  pose proof (nodup_set_eq_length _ _ D HN C) as L. rewrite map_length in L.
  split; [|exact L]. replace (length (g_lost ga)) with (length disc) by (exact L). exact E.
Qed.

(** ... and the step at which it finishes normally is exactly the loss notification that makes the
    number of distinct lost workers reach its size *)
Theorem finish_exactly_when qi a ga w c a' evs fin e conn disc :
  accounting_ok a ga = true -> a_status a = Running e conn disc ->
  sync_alloc qi a (RLost w c) = (a', evs, fin) ->
  ((exists d, a_status a' = Finished d) <-> N.of_nat (length (add_set w (g_lost ga))) = a_target a).
Proof.
  intros A St H. apply accounting_ok_iff in A. unfold acc in A. rewrite St in A.
  destruct A as (HN & _ & _ & C & D & E).
  assert (L : disc_count (map_insert w c disc) = N.of_nat (length (add_set w (g_lost ga)))).
  { unfold disc_count. f_equal. rewrite <- (map_length fst).
    apply nodup_set_eq_length; auto using nodup_map_insert_keys, nodup_add_set.
    intros x. rewrite in_map_insert_keys, in_add_set, C. tauto. }
  unfold sync_alloc in H. rewrite St in H. rewrite L in H.
  destruct (N.of_nat (length (add_set w (g_lost ga))) =? a_target a) eqn:Eq; inv H; simpl.
  - split; [intros _; lia|eauto].
  - split; [intros [d Hd]; discriminate|lia].
Qed.

Lemma only_loss_finishes_normally qi a r a' evs fin d :
  sync_alloc qi a r = (a', evs, fin) -> a_status a' = Finished d ->
  (exists d0, a_status a = Finished d0) \/ (exists w c, r = RLost w c).
Proof.
  intros H. apply (sync_alloc_spec _ _ _ _ _ _ H).
Qed.

Lemma status_errors_never_finish_normally qi a a' evs d :
  increase_status_error_counter qi a = (a', evs) -> a_status a' = Finished d ->
  exists d0, a_status a = Finished d0.
Proof.
  intros H. apply (increase_status_error_counter_spec _ _ _ _ H).
Qed.

(** ** Finding F15 (before the fix): a worker whose loss was processed before its connection was
    re-inserted into the connected set, and a loss for a queued allocation was dropped *)
Lemma F15_unfixed_refuted :
  (exists a ga w a' evs fin,
      accounting_ok a ga = true /\ sync_alloc_unfixed 1 a (RConnected w) = (a', evs, fin)
      /\ accounting_ok a' (g_add_conn w ga) = false
      /\ (forall a2 e2 f2, sync_alloc 1 a (RConnected w) = (a2, e2, f2) -> accounting_ok a2 (g_add_conn w ga) = true))
  /\ (exists a ga w a' evs fin,
      accounting_ok a ga = true /\ sync_alloc_unfixed 1 a (RLost w false) = (a', evs, fin)
      /\ accounting_ok a' (g_add_lost w ga) = false
      /\ (forall a2 e2 f2, sync_alloc 1 a (RLost w false) = (a2, e2, f2) -> accounting_ok a2 (g_add_lost w ga) = true)).
Proof.
  split.
  - exists (mkAlloc 1 2 (Running 0 [1] [(2, false)])), (mkG 1 1 [1] [2]), 2.
    eexists. eexists. eexists. split; [reflexivity|]. split; [reflexivity|]. split; [reflexivity|].
    intros a2 e2 f2 H. inv H. reflexivity.
  - exists (mkAlloc 1 2 (Queued 0)), (mkG 1 1 [] []), 2.
    eexists. eexists. eexists. split; [reflexivity|]. split; [reflexivity|]. split; [reflexivity|].
    intros a2 e2 f2 H. inv H. reflexivity.
Qed.
