(** C18 (second half) - the index [allocation_to_queue] covers exactly the allocations of the
    existing queues; removing a queue cancels each of its active allocations once and forgets them. *)
From HQ Require Import Base.Prelude Gen.Consts Autoalloc.Model Autoalloc.Spec Autoalloc.Lemmas Autoalloc.Trans Autoalloc.ProofsC17 Autoalloc.ProofsC18.
Open Scope N_scope.

Definition qids (q : queue) : list aid := map a_id (q_allocs q).

Definition ixinv (s : state) : Prop :=
  (forall id qi, alookup id (s_index s) = Some qi -> exists q, get_queue s qi = Some q /\ In id (qids q))
  /\ (forall qi q id, get_queue s qi = Some q -> In id (qids q) -> alookup id (s_index s) = Some qi)
  /\ NoDup (map fst (s_queues s))
  /\ (forall qi, In qi (map fst (s_queues s)) -> qi < s_next_qid s).

Definition same_skel (s s' : state) : Prop :=
  s_index s' = s_index s /\ s_next_qid s' = s_next_qid s
  /\ map fst (s_queues s') = map fst (s_queues s)
  /\ (forall qi, option_map qids (get_queue s' qi) = option_map qids (get_queue s qi)).

Lemma same_skel_refl s : same_skel s s.
Proof. unfold same_skel; auto. Qed.

Lemma same_skel_trans a b c : same_skel a b -> same_skel b c -> same_skel a c.
Proof.
  intros (A1 & A2 & A3 & A4) (B1 & B2 & B3 & B4). unfold same_skel.
  split; [congruence|]. split; [congruence|]. split; [congruence|].
  intros qi. now rewrite B4, A4.
Qed.

Lemma same_skel_ixinv s s' : same_skel s s' -> ixinv s -> ixinv s'.
Proof.
  intros (E1 & E2 & E3 & E4) (I1 & I2 & I3 & I4). unfold ixinv. rewrite E1, E2, E3. repeat split; auto.
  - intros id qi H. destruct (I1 _ _ H) as (q & G & Hin). specialize (E4 qi). rewrite G in E4. simpl in E4.
    destruct (get_queue s' qi) as [q'|]; [|discriminate]. inv E4. exists q'. split; auto. now rewrite H1.
  - intros qi q' id G Hin. specialize (E4 qi). rewrite G in E4. simpl in E4.
    destruct (get_queue s qi) as [q|] eqn:G0; [|discriminate]. inv E4. apply (I2 _ _ _ G0). now rewrite <- H0.
Qed.

Lemma same_skel_set_queue s qj v v0 :
  get_queue s qj = Some v0 -> qids v = qids v0 -> same_skel s (set_queue s qj v).
Proof.
  intros G E. unfold same_skel. repeat split; auto.
  - unfold set_queue; simpl. apply update_queue_keys.
  - intros qi. destruct (N.eq_dec qi qj) as [->|Hne].
    + rewrite (get_queue_set_queue_same _ _ _ _ G), G. simpl. now rewrite E.
    + now rewrite get_queue_set_queue_other.
Qed.

Lemma queue_le_qids q q' : queue_le q q' -> qids q' = qids q.
Proof. apply queue_le_ids. Qed.

Lemma try_pause_all_skel s : same_skel s (try_pause_all s).
Proof.
  unfold same_skel. repeat split; auto.
  - unfold try_pause_all; simpl. rewrite map_map. simpl. reflexivity.
  - intros qi. rewrite get_queue_try_pause_all. destruct (get_queue s qi); simpl; auto.
    unfold qids. now rewrite try_pause_queue_allocs.
Qed.

Lemma same_skel_set_queue_le s qj v v0 : get_queue s qj = Some v0 -> queue_le v0 v -> same_skel s (set_queue s qj v).
Proof. intros G L. eapply same_skel_set_queue; eauto. now apply queue_le_qids. Qed.

Lemma refresh_queue_allocations_skel s qj w s' outs :
  sinv s -> refresh_queue_allocations s qj w = Ok (s', outs) -> same_skel s s'.
Proof.
  intros Hs H. apply refresh_queue_allocations_spec in H.
  destruct H as [(-> & _)|(q & sw & q' & Eq & -> & Hl)]; [apply same_skel_refl|].
  eapply same_skel_set_queue_le; eauto. pose proof (proj2 (sinv_get _ _ _ Hs Eq)) as ND.
  destruct (sw_err sw); eauto using refresh_err_loop_le, refresh_loop_le.
Qed.

Lemma periodic_loop_skel order s wits s' outs :
  sinv s -> periodic_loop s order wits = Ok (s', outs) -> same_skel s s'.
Proof.
  intros Hs H. cut (sinv s -> sinv s' /\ same_skel s s'); [tauto|]. revert H.
  apply (periodic_loop_ind (fun s _ s' => sinv s -> sinv s' /\ same_skel s s')).
  - intros ? ?. split; [assumption|apply same_skel_refl].
  - intros s1 o1 s2 o2 s3 H1 H2 I1. destruct (H1 I1) as [I2 P1]. destruct (H2 I2) as [I3 P2].
    eauto using same_skel_trans.
  - intros ? ? ? ? ? Hr I. eauto using refresh_queue_allocations_sinv, refresh_queue_allocations_skel.
Qed.

Lemma worker_event_skel s id r s' outs :
  sinv s -> worker_event s id r = (s', outs) -> same_skel s s'.
Proof.
  intros Hs H. apply worker_event_spec in H.
  destruct H as [(-> & _)|(qj & q & q' & _ & Eq & Hl & ->)]; [apply same_skel_refl|].
  eapply same_skel_set_queue_le; eauto. eapply sync_allocation_status_le; eauto. apply (sinv_get _ _ _ Hs Eq).
Qed.

Lemma alookup_new_entries id (qj : qid) (news : list alloc) :
  alookup id (rev (map (fun a => (a_id a, qj)) news)) = if mem id (map a_id news) then Some qj else None.
Proof.
  induction news as [|a news IH]; simpl; auto.
  rewrite alookup_app, IH. unfold mem. simpl. rewrite (N.eqb_sym id (a_id a)).
  destruct (existsb (N.eqb id) (map a_id news)); [now rewrite orb_true_r|].
  rewrite orb_false_r. destruct (a_id a =? id); reflexivity.
Qed.

Lemma queue_try_submit_ixinv s qj r script s' outs sc :
  queue_try_submit s qj r script = Ok (s', outs, sc) -> ixinv s -> ixinv s'.
Proof.
  intros H I. apply queue_try_submit_spec in H.
  destruct H as [(-> & _)|(q & permit & q1 & idx1 & Eq & _ & _ & _ & _ & _ & Hsl & ->)]; [exact I|].
  destruct (submit_loop_shape _ _ _ _ _ _ _ _ _ Hsl) as (news & Hall & Hnew & _ & Hidx & Hnd). simpl in Hall.
  destruct I as (I1 & I2 & I3 & I4).
  pose proof (fun qi => get_queue_update_queue s qj q1 q idx1 qi Eq) as G1.
  assert (Q1 : qids q1 = qids q ++ map a_id news) by (unfold qids; now rewrite Hall, map_app).
  assert (L : forall id, alookup id idx1 = if mem id (map a_id news) then Some qj else alookup id (s_index s)).
  { intros id. rewrite Hidx, alookup_app, alookup_new_entries. destruct (mem id (map a_id news)); auto. }
  assert (Fresh : forall id, In id (map a_id news) -> alookup id (s_index s) = None).
  { intros id Hin. apply in_map_iff in Hin. destruct Hin as (a & <- & Ha). apply (Hnew _ Ha). }
  unfold ixinv. repeat split.
  - intros id qi Hl. simpl in Hl. rewrite L in Hl. destruct (mem id (map a_id news)) eqn:M.
    + inv Hl. exists q1. rewrite G1, N.eqb_refl. split; auto. rewrite Q1. apply in_or_app. right. now apply mem_true.
    + destruct (I1 _ _ Hl) as (q0 & G & Hin). rewrite G1. destruct (qi =? qj) eqn:E.
      * apply N.eqb_eq in E. subst. rewrite Eq in G. inv G. exists q1. split; auto. rewrite Q1. apply in_or_app. auto.
      * eauto.
  - intros qi q0 id G Hin. simpl. rewrite L. rewrite G1 in G. destruct (qi =? qj) eqn:E.
    + apply N.eqb_eq in E. subst. inv G. rewrite Q1 in Hin. apply in_app_or in Hin.
      destruct (mem id (map a_id news)) eqn:M; auto. destruct Hin as [Hin|Hin].
      * apply (I2 _ _ _ Eq Hin).
      * apply mem_true in Hin. congruence.
    + destruct (mem id (map a_id news)) eqn:M; [|eauto].
      apply mem_true in M. pose proof (I2 _ _ _ G Hin) as A. specialize (Fresh _ M). congruence.
  - simpl. now rewrite update_queue_keys.
  - simpl. rewrite update_queue_keys. exact I4.
Qed.

Lemma perform_submits_ixinv s order resps scripts s' outs :
  perform_submits s order resps scripts = Ok (s', outs) -> ixinv s -> ixinv s'.
Proof.
  intros H I. apply perform_submits_spec in H. apply (same_skel_ixinv _ _ (try_pause_all_skel s)) in I.
  destruct H as [_ [(_ & -> & _)|(s2 & _ & Hq & ->)]]; [exact I|].
  eapply same_skel_ixinv; [apply try_pause_all_skel|]. revert Hq I.
  apply (submit_queues_ind (fun s _ s' => ixinv s -> ixinv s')); eauto using queue_try_submit_ixinv.
Qed.

Lemma index_remove_all_spec ids : forall idx idx',
  index_remove_all ids idx = Ok idx' ->
  forall id, alookup id idx' = if mem id ids then None else alookup id idx.
Proof.
  induction ids as [|x ids IH]; simpl; intros idx idx' H id.
  - now inv H.
  - destruct (alookup x idx); [|discriminate]. rewrite (IH _ _ H id). unfold mem. simpl.
    destruct (existsb (N.eqb id) ids); [now rewrite orb_true_r|]. rewrite orb_false_r.
    apply alookup_filter.
Qed.

Lemma nodup_map_filter {A} (f : A -> N) g (l : list A) : NoDup (map f l) -> NoDup (map f (filter g l)).
Proof.
  induction l as [|x l IH]; simpl; intros ND; [constructor|]. inv ND.
  destruct (g x); simpl; auto. constructor; auto.
  intros Hin. apply H1. apply in_map_iff in Hin. destruct Hin as (y & E & Hy).
  apply filter_In in Hy. rewrite <- E. apply in_map. tauto.
Qed.

Lemma removes_of_shape qi (l : list alloc) :
  removes_of qi (OutRet true :: map (fun a => OutRemove qi (a_id a)) l ++ [EvQueueRemoved qi]) = map a_id l.
Proof. simpl. induction l as [|a l IH]; simpl; auto. now rewrite N.eqb_refl, IH. Qed.

Lemma remove_queue_ixinv s qi force s' outs :
  remove_queue s qi force = Ok (s', outs) -> ixinv s -> ixinv s'.
Proof.
  intros H I. apply remove_queue_spec in H.
  destruct H as [(-> & _)|(q & x & Eq & Hx & -> & _)]; [exact I|].
  pose proof (index_remove_all_spec _ _ _ Hx) as L.
  destruct I as (I1 & I2 & I3 & I4).
  pose proof (get_queue_remove s qi x) as G1.
  unfold ixinv. repeat split.
  - intros id qj Hl. simpl in Hl. rewrite L in Hl. destruct (mem id (map a_id (q_allocs q))) eqn:M; [discriminate|].
    destruct (I1 _ _ Hl) as (q0 & G & Hin). rewrite G1. destruct (qj =? qi) eqn:E.
    + apply N.eqb_eq in E. subst. rewrite Eq in G. inv G. apply mem_false in M. contradiction.
    + eauto.
  - intros qj q0 id G Hin. rewrite G1 in G. destruct (qj =? qi) eqn:E; [discriminate|].
    simpl. rewrite L. destruct (mem id (map a_id (q_allocs q))) eqn:M; [|eauto].
    apply mem_true in M. pose proof (I2 _ _ _ Eq M) as A. pose proof (I2 _ _ _ G Hin) as B.
    rewrite A in B. inv B. rewrite N.eqb_refl in E. discriminate.
  - simpl. now apply nodup_map_filter.
  - simpl. intros qj Hin. apply I4. apply in_map_iff in Hin. destruct Hin as (kv & E & Hin).
    apply filter_In in Hin. rewrite <- E. apply in_map. tauto.
Qed.

Lemma add_queue_ixinv s backlog mwpa maxw lim :
  ixinv s -> ixinv (fst (add_queue s backlog mwpa maxw lim)).
Proof.
  intros (I1 & I2 & I3 & I4). unfold add_queue, ixinv; simpl.
  assert (Hnew : alookup (s_next_qid s) (s_queues s) = None).
  { destruct (alookup (s_next_qid s) (s_queues s)) eqn:E; auto. apply alookup_in in E.
    assert (In (s_next_qid s) (map fst (s_queues s))) by (change (s_next_qid s) with (fst (s_next_qid s, q)); now apply in_map).
    apply I4 in H. lia. }
  pose proof (get_queue_add_queue s backlog mwpa maxw lim) as G1.
  repeat split.
  - intros id qi H. destruct (I1 _ _ H) as (q & G & Hin). exists q. split; auto.
    unfold get_queue in *; simpl. now apply alookup_app_some.
  - intros qi q id G Hin. destruct (G1 _ _ G) as [G0|E]; [eauto|]. unfold qids in Hin. rewrite E in Hin. destruct Hin.
  - rewrite map_app. simpl. apply nodup_snoc; auto. intros Hin. apply I4 in Hin. lia.
  - intros qi Hin. rewrite map_app in Hin. apply in_app_or in Hin. simpl in Hin.
    destruct Hin as [Hin|[<-|[]]]; [apply I4 in Hin|]; lia.
Qed.

Lemma step_ixinv s o s' outs : sinv s -> step s o = Ok (s', outs) -> ixinv s -> ixinv s'.
Proof.
  intros Hs H. revert H Hs.
  apply (step_cases (fun s _ _ s' => sinv s -> ixinv s -> ixinv s')); clear;
    eauto using add_queue_ixinv, perform_submits_ixinv, queue_try_submit_ixinv, remove_queue_ixinv,
      same_skel_ixinv, periodic_loop_skel, worker_event_skel, same_skel_set_queue.
  - intros s o q v f Hf Eq _. apply same_skel_ixinv. eapply same_skel_set_queue; eauto.
    now destruct Hf as [[_ ->] | [_ ->]].
  - intros s q force v idx Eq Hx _. eapply (remove_queue_ixinv s q true). unfold remove_queue.
    rewrite Eq, andb_false_r, Hx. reflexivity.
Qed.

(** ** C18: the index covers exactly the allocations of the existing queues, in every reachable state *)
Theorem index_exact s g : Reach s g -> ixinv s.
Proof.
  induction 1 as [q0|s g o s' outs R IH H].
  - unfold ixinv, init_state, get_queue; simpl. repeat split; try discriminate; try constructor; intros; contradiction.
  - eapply step_ixinv; eauto using reach_sinv.
Qed.

(** ** C18: removing a queue cancels each of its active allocations exactly once and forgets them;
    a refused removal changes nothing *)
Theorem remove_queue_exact s g qi force s' outs q :
  Reach s g -> get_queue s qi = Some q -> step s (ORemove qi force) = Ok (s', outs) ->
  if existsb is_running (q_allocs q) && negb force
  then s' = s /\ outs = [OutRet false]
  else removes_of qi outs = active_ids q /\ NoDup (active_ids q)
       /\ In (EvQueueRemoved qi) outs
       /\ get_queue s' qi = None
       /\ (forall id, alookup id (s_index s') <> Some qi)
       /\ ixinv s'.
Proof.
  intros R G H. pose proof (index_exact _ _ R) as I. pose proof (reach_sinv _ _ R) as Hs.
  pose proof (step_ixinv _ _ _ _ Hs H I) as I'.
  simpl in H. unfold remove_queue in H. rewrite G in H.
  destruct (existsb is_running (q_allocs q) && negb force); [inv H; auto|].
  bind_inv H. inv H.
  assert (G' : get_queue {| s_queues := filter (fun kv => negb (fst kv =? qi)) (s_queues s);
                            s_index := x; s_next_qid := s_next_qid s; s_now := s_now s |} qi = None).
  { rewrite get_queue_remove. now rewrite N.eqb_refl. }
  split; [apply removes_of_shape|].
  split; [unfold active_ids; apply nodup_map_filter; apply (sinv_get _ _ _ Hs G)|].
  split; [simpl; right; apply in_or_app; right; simpl; auto|].
  split; [exact G'|]. split; [|exact I'].
  intros id Hl. destruct I' as (I1 & _). destruct (I1 _ _ Hl) as (q0 & G0 & _). congruence.
Qed.

Lemma ixinv_index_ok s : sinv s -> ixinv s -> NoDup (map fst (s_index s)) -> index_ok s = true.
Proof.
  intros Hs (I1 & I2 & I3 & I4) ND. unfold index_ok. rewrite !andb_true_iff. repeat split.
  - apply forallb_forall. intros [id qi] Hin. simpl.
    pose proof (in_alookup _ _ _ ND Hin) as Hl. destruct (I1 _ _ Hl) as (q & G & Hq). rewrite G.
    destruct (find_alloc id (q_allocs q)) eqn:Ef; auto. apply find_alloc_none_notin in Ef. contradiction.
  - apply forallb_forall. intros [qi q] Hin. simpl. apply forallb_forall. intros a Ha.
    assert (G : get_queue s qi = Some q) by (apply in_alookup; auto).
    rewrite (I2 _ _ _ G (in_map a_id _ _ Ha)). apply N.eqb_refl.
  - now apply nodupb_spec.
  - now apply nodupb_spec.
  - apply forallb_forall. intros [qi q] Hin. simpl. apply nodupb_spec.
    unfold sinv in Hs. rewrite Forall_forall in Hs. apply (Hs _ Hin).
Qed.

Definition idx_nodup (s : state) : Prop := NoDup (map fst (s_index s)).

Lemma alookup_none_notin {A} k (l : list (N * A)) : alookup k l = None -> ~ In k (map fst l).
Proof.
  induction l as [|[k' v] l IH]; simpl; [tauto|]. destruct (k' =? k) eqn:E; [discriminate|].
  intros H [H1|H1]; [subst; rewrite N.eqb_refl in E; discriminate|]. now apply IH.
Qed.

Lemma submit_loop_idx_nodup qi permit script q idx q2 idx2 outs sc :
  submit_loop qi permit script q idx = Ok (q2, idx2, outs, sc) -> NoDup (map fst idx) -> NoDup (map fst idx2).
Proof.
  apply (submit_loop_ind qi (fun _ _ idx _ _ idx2 => NoDup (map fst idx) -> NoDup (map fst idx2))); auto.
  intros n rest q0 idx0 id o q3 idx3 Ei _ IH ND. apply IH. simpl. constructor; auto. now apply alookup_none_notin.
Qed.

Lemma queue_try_submit_idx_nodup s qj r script s' outs sc :
  queue_try_submit s qj r script = Ok (s', outs, sc) -> idx_nodup s -> idx_nodup s'.
Proof.
  intros H I. apply queue_try_submit_spec in H.
  destruct H as [(-> & _)|(q & permit & q1 & idx1 & _ & _ & _ & _ & _ & _ & Hl & ->)]; [exact I|].
  eapply submit_loop_idx_nodup; eauto.
Qed.

Lemma index_remove_all_nodup ids : forall idx idx',
  index_remove_all ids idx = Ok idx' -> NoDup (map fst idx) -> NoDup (map fst idx').
Proof.
  induction ids as [|x ids IH]; simpl; intros idx idx' H ND; [now inv H|].
  destruct (alookup x idx); [|discriminate]. eapply IH; eauto. now apply nodup_map_filter.
Qed.

Lemma same_skel_idx_nodup s s' : same_skel s s' -> idx_nodup s -> idx_nodup s'.
Proof. intros (E & _). unfold idx_nodup. now rewrite E. Qed.

Lemma step_idx_nodup s o s' outs : sinv s -> step s o = Ok (s', outs) -> idx_nodup s -> idx_nodup s'.
Proof.
  intros Hs H. revert H Hs.
  apply (step_cases (fun s _ _ s' => sinv s -> idx_nodup s -> idx_nodup s')); clear;
    eauto using queue_try_submit_idx_nodup, same_skel_idx_nodup, periodic_loop_skel, worker_event_skel.
  - intros s order resps scripts s' outs H _ I. apply perform_submits_spec in H.
    destruct H as [_ [(_ & -> & _)|(s2 & _ & Hq & ->)]]; [exact I|]. change (idx_nodup s2).
    change (idx_nodup (try_pause_all s)) in I. revert Hq I.
    apply (submit_queues_ind (fun s _ s' => idx_nodup s -> idx_nodup s')); eauto using queue_try_submit_idx_nodup.
  - intros s q force v idx _ Hx _. apply (index_remove_all_nodup _ _ _ Hx).
Qed.

Theorem index_nodup s g : Reach s g -> idx_nodup s.
Proof.
  induction 1 as [q0|s g o s' outs R IH H]; [constructor|].
  eapply step_idx_nodup; eauto using reach_sinv.
Qed.

(** ** the executable index monitor holds on every reachable state *)
Theorem index_monitor s g : Reach s g -> index_ok s = true.
Proof.
  intros R. apply ixinv_index_ok; [eapply reach_sinv; eauto|eapply index_exact; eauto|eapply index_nodup; eauto].
Qed.
