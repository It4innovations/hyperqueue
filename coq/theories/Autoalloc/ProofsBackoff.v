(** C17 (back-off, second half) - the limiter's [last_submission] is exactly the time of the last
    step that made a submission attempt for the queue: it is set to "now" by such a step and changed
    by nothing else.  Together with [backoff_respected] (an attempt happens only when
    now - last_submission >= delay(level)) this is "no attempt sooner than the current back-off
    delay after the previous attempt". *)
From HQ Require Import Base.Prelude Gen.Consts Autoalloc.Model Autoalloc.Spec Autoalloc.Lemmas Autoalloc.Trans Autoalloc.ProofsC17.
Open Scope N_scope.

Definition last_of (q : queue) : option N := l_last (q_lim q).

Lemma increase_delay_last l : l_last (increase_delay l) = l_last l.
Proof. unfold increase_delay. destruct (_ <? _); reflexivity. Qed.

Lemma sync_allocation_status_last qi q id r q' outs :
  sync_allocation_status qi q id r = (q', outs) -> last_of q' = last_of q.
Proof.
  intros H. apply sync_allocation_status_spec in H.
  destruct (find_alloc id (q_allocs q)); [|now destruct H as [-> _]].
  destruct H as (a' & evs & fin & _ & -> & _). unfold last_of; simpl.
  destruct fin as [[|]|]; simpl; auto. unfold on_allocation_fail. now rewrite increase_delay_last.
Qed.

Lemma bump_last qi q id q' outs : bump qi q id = (q', outs) -> last_of q' = last_of q.
Proof.
  intros H. apply bump_spec in H. destruct (find_alloc id (q_allocs q)); [|now destruct H as [-> _]].
  now destruct H as (a' & _ & ->).
Qed.

Lemma refresh_loop_last qi sts q q' outs : refresh_loop qi q sts = (q', outs) -> last_of q' = last_of q.
Proof.
  apply (refresh_loop_ind qi (fun q _ q' => last_of q' = last_of q));
    eauto using bump_last, sync_allocation_status_last.
  intros; congruence.
Qed.

Lemma refresh_err_loop_last qi order q q' outs : refresh_err_loop qi q order = (q', outs) -> last_of q' = last_of q.
Proof.
  apply (refresh_err_loop_ind qi (fun q _ q' => last_of q' = last_of q)); eauto using bump_last.
  intros; congruence.
Qed.

Lemma submit_loop_last qi permit script q idx q2 idx2 outs sc :
  submit_loop qi permit script q idx = Ok (q2, idx2, outs, sc) -> last_of q2 = last_of q.
Proof.
  apply (submit_loop_ind qi (fun _ q _ _ q2 _ => last_of q2 = last_of q)); auto.
  intros. unfold last_of; simpl. unfold on_submission_fail. now rewrite increase_delay_last.
Qed.

Definition last_rel (s s' : state) (qi : qid) (outs : list out) : Prop :=
  forall q, get_queue s qi = Some q ->
    exists q', get_queue s' qi = Some q'
      /\ (if has_submit qi outs then last_of q' = Some (s_now s) else last_of q' = last_of q).

Lemma last_rel_refl s qi : last_rel s s qi [].
Proof. intros q G. exists q. split; [auto|reflexivity]. Qed.

Lemma last_rel_same s s' qi :
  (forall q, get_queue s qi = Some q -> exists q', get_queue s' qi = Some q' /\ last_of q' = last_of q) ->
  last_rel s s' qi [].
Proof. intros H q G. destruct (H _ G) as (q' & G' & L). exists q'. split; [auto|exact L]. Qed.

Lemma last_rel_events s s' qi outs :
  only_events outs ->
  (forall q, get_queue s qi = Some q -> exists q', get_queue s' qi = Some q' /\ last_of q' = last_of q) ->
  last_rel s s' qi outs.
Proof.
  intros He H q G. destruct (H _ G) as (q' & G' & L). exists q'. split; auto.
  now rewrite (only_events_no_submit _ qi He).
Qed.

Lemma last_rel_trans s1 s2 s3 qi o1 o2 :
  s_now s2 = s_now s1 ->
  (has_submit qi o1 = true -> has_submit qi o2 = false) ->
  last_rel s1 s2 qi o1 -> last_rel s2 s3 qi o2 -> last_rel s1 s3 qi (o1 ++ o2).
Proof.
  intros En Hx H1 H2 q G. destruct (H1 _ G) as (q2 & G2 & L2). destruct (H2 _ G2) as (q3 & G3 & L3).
  exists q3. split; auto. rewrite has_submit_app. rewrite En in L3.
  destruct (has_submit qi o1) eqn:E1; simpl.
  - rewrite (Hx eq_refl) in L3. congruence.
  - destruct (has_submit qi o2); congruence.
Qed.

Lemma queue_try_submit_last s qj r script s' outs sc qi :
  queue_try_submit s qj r script = Ok (s', outs, sc) -> last_rel s s' qi outs.
Proof.
  intros H. apply queue_try_submit_spec in H.
  destruct H as [(-> & -> & _)|(q & permit & q1 & idx1 & Eq & _ & _ & _ & Hp & _ & Hl & ->)]; [apply last_rel_refl|].
  pose proof (submit_loop_last _ _ _ _ _ _ _ _ _ Hl) as L. unfold last_of in L; simpl in L.
  destruct (submit_loop_outs _ _ _ _ _ _ _ _ _ Hl) as [O1 O2].
  intros v Hv. rewrite (get_queue_update_queue _ _ _ _ _ _ Eq). destruct (qi =? qj) eqn:E.
  - apply N.eqb_eq in E. subst. exists q1. split; auto. now rewrite O2.
  - exists v. split; auto. destruct (has_submit qi outs) eqn:E'; auto. apply O1 in E'. subst.
    rewrite N.eqb_refl in E. discriminate.
Qed.

Lemma try_pause_all_last s qi : last_rel s (try_pause_all s) qi [].
Proof.
  apply last_rel_same. intros q G. rewrite get_queue_try_pause_all, G. simpl. eexists. split; eauto.
  unfold last_of. now rewrite try_pause_queue_lim.
Qed.

Lemma submit_queues_now order s resps scripts s' outs :
  submit_queues s order resps scripts = Ok (s', outs) -> s_now s' = s_now s.
Proof.
  apply (submit_queues_ind (fun s _ s' => s_now s' = s_now s)); eauto using queue_try_submit_now.
  intros. congruence.
Qed.

Lemma submit_queues_last order s resps scripts s' outs qi :
  submit_queues s order resps scripts = Ok (s', outs) -> NoDup order -> last_rel s s' qi outs.
Proof.
  intros H ND q G. pose proof (submit_queues_split _ _ _ _ _ _ qi H ND) as Sp.
  destruct (zip_lookup qi order resps) as [r|].
  - destruct Sp as (s1 & sc & s2 & o1 & sc' & G1 & N1 & Ht & -> & ->). rewrite <- G1 in G. rewrite <- N1.
    apply (queue_try_submit_last _ _ _ _ _ _ _ qi Ht _ G).
  - destruct Sp as [-> ->]. exists q. auto.
Qed.

Lemma perform_submits_last s order resps scripts s' outs qi :
  perform_submits s order resps scripts = Ok (s', outs) -> last_rel s s' qi outs.
Proof.
  intros H. apply perform_submits_spec in H.
  destruct H as [Ep [(_ & -> & ->)|(s2 & _ & Hq & ->)]]; [apply try_pause_all_last|].
  rewrite <- (app_nil_r outs).
  apply (last_rel_trans s s2 _ qi outs []); [exact (submit_queues_now _ _ _ _ _ _ Hq)|auto| |apply try_pause_all_last].
  apply (last_rel_trans s (try_pause_all s) s2 qi [] outs); [reflexivity|discriminate|apply try_pause_all_last|].
  eapply submit_queues_last; eauto using perm_of_nodup.
Qed.

Definition keeps_last (s s' : state) (qi : qid) : Prop :=
  forall q, get_queue s qi = Some q -> exists q', get_queue s' qi = Some q' /\ last_of q' = last_of q.

Lemma keeps_last_refl s qi : keeps_last s s qi.
Proof. intros q G. eauto. Qed.

Lemma keeps_last_trans s1 s2 s3 qi : keeps_last s1 s2 qi -> keeps_last s2 s3 qi -> keeps_last s1 s3 qi.
Proof.
  intros H1 H2 q G. destruct (H1 _ G) as (q2 & G2 & L2). destruct (H2 _ G2) as (q3 & G3 & L3).
  exists q3. split; auto. congruence.
Qed.

Lemma keeps_last_set_queue s qj v v0 qi :
  get_queue s qj = Some v0 -> last_of v = last_of v0 -> keeps_last s (set_queue s qj v) qi.
Proof.
  intros G L q Hq. destruct (N.eq_dec qi qj) as [->|Hne].
  - exists v. split; [eapply get_queue_set_queue_same; eauto|congruence].
  - exists q. split; [rewrite get_queue_set_queue_other; auto|reflexivity].
Qed.

Lemma refresh_queue_allocations_keeps s qj w s' outs qi :
  refresh_queue_allocations s qj w = Ok (s', outs) -> keeps_last s s' qi.
Proof.
  intros H. apply refresh_queue_allocations_spec in H.
  destruct H as [(-> & _)|(q & sw & q' & Eq & -> & Hl)]; [apply keeps_last_refl|].
  eapply keeps_last_set_queue; eauto. destruct (sw_err sw); eauto using refresh_err_loop_last, refresh_loop_last.
Qed.

Lemma periodic_loop_keeps order s wits s' outs qi :
  periodic_loop s order wits = Ok (s', outs) -> keeps_last s s' qi.
Proof.
  apply (periodic_loop_ind (fun s _ s' => keeps_last s s' qi));
    eauto using keeps_last_refl, keeps_last_trans, refresh_queue_allocations_keeps.
Qed.

Lemma worker_event_keeps s id r s' outs qi : worker_event s id r = (s', outs) -> keeps_last s s' qi.
Proof.
  intros H. apply worker_event_spec in H.
  destruct H as [(-> & _)|(qj & q & q' & _ & Eq & Hl & ->)]; [apply keeps_last_refl|].
  eapply keeps_last_set_queue; eauto using sync_allocation_status_last.
Qed.

(** ** C17: [last_submission] of a queue is set to the current time by exactly the steps that make
    a submission attempt for it, and is left alone by every other step *)
Theorem last_attempt_recorded s o s' outs qi q :
  step s o = Ok (s', outs) -> get_queue s qi = Some q ->
  match get_queue s' qi with
  | Some q' => if has_submit qi outs then last_of q' = Some (s_now s) else last_of q' = last_of q
  | None => True
  end.
Proof.
  intros H. revert H q.
  apply (step_cases (fun s _ o s' => forall q, get_queue s qi = Some q ->
    match get_queue s' qi with
    | Some q' => if has_submit qi o then last_of q' = Some (s_now s) else last_of q' = last_of q
    | None => True
    end)); clear - qi.
  - intros s o b _ q G. rewrite G. reflexivity.
  - intros s backlog mwpa maxw lim l _ q G. unfold get_queue in *; simpl.
    rewrite (alookup_app_some _ _ _ _ G). reflexivity.
  - intros s order resps scripts s' outs H q G.
    destruct (perform_submits_last _ _ _ _ _ _ qi H _ G) as (q' & G' & L). now rewrite G'.
  - intros s qj r script s' outs sc H q G.
    destruct (queue_try_submit_last _ _ _ _ _ _ _ qi H _ G) as (q' & G' & L). now rewrite G'.
  - intros s order wits s' outs H q G.
    destruct (periodic_loop_keeps _ _ _ _ _ qi H _ G) as (q' & G' & L). rewrite G'.
    now rewrite (status_events_no_submit _ qi (periodic_loop_status_events _ _ _ _ _ H)).
  - intros s o a r s' outs _ H q G.
    destruct (worker_event_keeps _ _ _ _ _ qi H _ G) as (q' & G' & L). rewrite G'. simpl.
    now rewrite (status_events_no_submit _ qi (worker_event_status_events _ _ _ _ _ H)).
  - intros s o qj v f Hf Eq q G.
    assert (L0 : last_of (f v) = last_of v) by (destruct Hf as [[_ ->] | [_ ->]]; reflexivity).
    destruct (keeps_last_set_queue s qj (f v) v qi Eq L0 _ G) as (q' & G' & L). now rewrite G'.
  - intros s qj force v idx _ _ q G. rewrite get_queue_remove. destruct (qi =? qj); [exact I|].
    rewrite G. simpl.
    rewrite has_submit_app, has_submit_removes. reflexivity.
  - intros s d q G. unfold get_queue in *; simpl. rewrite G. reflexivity.
Qed.
