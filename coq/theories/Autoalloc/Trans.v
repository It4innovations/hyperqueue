(** How one queue evolves across any step of the autoalloc state machine: every step transforms
    each existing queue by a sequence of primitive transformations (or removes it).  Properties
    preserved by the primitives lift to all steps (used by C17 "a paused queue stays paused" and by
    C18 "lifecycle is monotone"). *)
From HQ Require Import Base.Prelude Gen.Consts Autoalloc.Model Autoalloc.Spec Autoalloc.Lemmas.
Open Scope N_scope.

Definition alloc_trans (a a' : alloc) : Prop :=
  a_id a' = a_id a /\ a_target a' = a_target a
  /\ rank (a_status a) <= rank (a_status a')
  /\ (is_finished a = true -> a' = a).

Lemma alloc_trans_refl a : alloc_trans a a.
Proof. unfold alloc_trans. repeat split; auto; lia. Qed.

Lemma alloc_trans_trans a b c : alloc_trans a b -> alloc_trans b c -> alloc_trans a c.
Proof.
  unfold alloc_trans. intros (A1 & A2 & A3 & A4) (B1 & B2 & B3 & B4).
  repeat split; try congruence; try lia.
  intros Hf. specialize (A4 Hf). subst b. auto.
Qed.

Lemma sync_alloc_spec qi a r a' evs fin :
  sync_alloc qi a r = (a', evs, fin) ->
  alloc_trans a a' /\ status_events evs
  /\ (forall d, a_status a' = Finished d ->
        (exists d0, a_status a = Finished d0) \/ (exists w c, r = RLost w c)).
Proof.
  unfold sync_alloc, alloc_trans, is_finished. destruct a as [id tg st].
  destruct r; destruct st; simpl; intros H;
    repeat match type of H with context [if ?c then _ else _] => destruct c end;
    inv H; simpl; (split; [repeat split; auto; try lia; try discriminate|]);
    (split; [repeat constructor|intros d Hd; try discriminate; eauto]).
Qed.

Lemma sync_alloc_trans qi a r a' evs fin : sync_alloc qi a r = (a', evs, fin) -> alloc_trans a a'.
Proof. intros H. apply (sync_alloc_spec _ _ _ _ _ _ H). Qed.

Lemma increase_status_error_counter_spec qi a a' evs :
  increase_status_error_counter qi a = (a', evs) ->
  alloc_trans a a' /\ status_events evs
  /\ (forall d, a_status a' = Finished d -> exists d0, a_status a = Finished d0).
Proof.
  unfold increase_status_error_counter, alloc_trans, is_finished. destruct a as [id tg st].
  destruct st; simpl; intros H;
    repeat match type of H with context [if ?c then _ else _] => destruct c end;
    inv H; simpl; (split; [repeat split; auto; try lia; try discriminate|]);
    (split; [repeat constructor|intros d Hd; try discriminate; eauto]).
Qed.

Lemma bump_trans qi a a' evs : increase_status_error_counter qi a = (a', evs) -> alloc_trans a a'.
Proof. intros H. apply (increase_status_error_counter_spec _ _ _ _ H). Qed.

Lemma alloc_trans_le a a' : alloc_trans a a' -> alloc_le a a'.
Proof.
  intros (Hid & Ht & Hr & _). unfold alloc_le, is_active, is_queued, is_running.
  repeat split; auto; destruct (a_status a), (a_status a'); simpl in *; auto; intros; lia.
Qed.

(** primitive transformations of a queue; [ar] = resuming is allowed *)
Inductive qprim (ar : bool) : queue -> queue -> Prop :=
| qp_alloc q id a a' :
    find_alloc id (q_allocs q) = Some a -> alloc_trans a a' ->
    qprim ar q (set_allocs (update_alloc id (fun _ => a') (q_allocs q)) q)
| qp_lim q l : qprim ar q (set_lim l q)
| qp_new q id n :
    find_alloc id (q_allocs q) = None ->
    qprim ar q (set_allocs (q_allocs q ++ [new_alloc id n]) q)
| qp_pause q : qprim ar q (pause q)
| qp_resume q : ar = true -> qprim ar q (resume q).

Inductive qtrans (ar : bool) : queue -> queue -> Prop :=
| qt_refl q : qtrans ar q q
| qt_step q1 q2 q3 : qtrans ar q1 q2 -> qprim ar q2 q3 -> qtrans ar q1 q3.

Lemma qtrans_trans ar a b c : qtrans ar a b -> qtrans ar b c -> qtrans ar a c.
Proof. intros H1 H2. induction H2; [exact H1|]. eapply qt_step; [apply IHqtrans; exact H1|exact H]. Qed.

Lemma qtrans_prim ar a b : qprim ar a b -> qtrans ar a b.
Proof. intros. eapply qt_step; [apply qt_refl|auto]. Qed.

Lemma qtrans_weaken a b : qtrans false a b -> forall ar, qtrans ar a b.
Proof.
  induction 1; intros ar; [apply qt_refl|]. eapply qt_step; [apply IHqtrans|].
  inv H0; [eapply qp_alloc; eauto|apply qp_lim|apply qp_new; auto|apply qp_pause|congruence].
Qed.

Lemma sync_allocation_status_qtrans ar qi q id r q' outs :
  sync_allocation_status qi q id r = (q', outs) -> qtrans ar q q'.
Proof.
  intros H. apply sync_allocation_status_spec in H.
  destruct (find_alloc id (q_allocs q)) as [a|] eqn:Ef; [|destruct H as [-> _]; apply qt_refl].
  destruct H as (a' & evs & fin & Es & -> & _).
  eapply qt_step; [|apply qp_lim]. apply qtrans_prim. eapply qp_alloc; eauto using sync_alloc_trans.
Qed.

Lemma bump_qtrans ar qi q id q' outs : bump qi q id = (q', outs) -> qtrans ar q q'.
Proof.
  intros H. apply bump_spec in H.
  destruct (find_alloc id (q_allocs q)) as [a|] eqn:Ef; [|destruct H as [-> _]; apply qt_refl].
  destruct H as (a' & Ei & ->). apply qtrans_prim. eapply qp_alloc; eauto using bump_trans.
Qed.

Lemma refresh_loop_qtrans ar qi sts q q' outs : refresh_loop qi q sts = (q', outs) -> qtrans ar q q'.
Proof.
  apply (refresh_loop_ind qi (fun q _ q' => qtrans ar q q'));
    eauto using qt_refl, qtrans_trans, bump_qtrans, sync_allocation_status_qtrans.
Qed.

Lemma refresh_err_loop_qtrans ar qi order q q' outs :
  refresh_err_loop qi q order = (q', outs) -> qtrans ar q q'.
Proof.
  apply (refresh_err_loop_ind qi (fun q _ q' => qtrans ar q q')); eauto using qt_refl, qtrans_trans, bump_qtrans.
Qed.

Lemma submit_loop_qtrans ar qi permit script q idx q2 idx2 outs sc :
  submit_loop qi permit script q idx = Ok (q2, idx2, outs, sc) -> qtrans ar q q2.
Proof.
  apply (submit_loop_ind qi (fun _ q _ _ q2 _ => qtrans ar q q2)).
  - intros. apply qt_refl.
  - intros n rest q0 idx0 id o q3 idx3 _ Ef T. eapply qtrans_trans; [|exact T].
    eapply qt_step; [apply qtrans_prim; apply (qp_new ar q0 id n Ef)|apply qp_lim].
  - intros. apply qtrans_prim. apply qp_lim.
Qed.

Lemma try_pause_queue_qtrans ar now q : qtrans ar q (try_pause_queue now q).
Proof.
  unfold try_pause_queue. destruct (negb (q_active q)); [apply qt_refl|].
  destruct (submission_status now (q_lim q)); try apply qt_refl; apply qtrans_prim; apply qp_pause.
Qed.

Definition lifts (ar : bool) (s s' : state) (qi : qid) : Prop :=
  forall q, get_queue s qi = Some q -> exists q', get_queue s' qi = Some q' /\ qtrans ar q q'.

Lemma lifts_refl ar s qi : lifts ar s s qi.
Proof. intros q H. exists q. split; auto. apply qt_refl. Qed.

Lemma lifts_trans ar s1 s2 s3 qi : lifts ar s1 s2 qi -> lifts ar s2 s3 qi -> lifts ar s1 s3 qi.
Proof.
  intros H1 H2 q Hq. destruct (H1 _ Hq) as (q' & G & T). destruct (H2 _ G) as (q'' & G' & T').
  exists q''. split; auto. eapply qtrans_trans; eauto.
Qed.

Lemma lifts_set_queue ar s qj v v0 qi :
  get_queue s qj = Some v0 -> qtrans ar v0 v -> lifts ar s (set_queue s qj v) qi.
Proof.
  intros G T q Hq. destruct (N.eq_dec qi qj) as [->|Hne].
  - exists v. split; [eapply get_queue_set_queue_same; eauto|]. congruence.
  - exists q. split; [rewrite get_queue_set_queue_other; auto|apply qt_refl].
Qed.

Lemma get_queue_update_queue s qj v v0 idx qi :
  get_queue s qj = Some v0 ->
  get_queue (mkSt (update_queue qj (fun _ => v) (s_queues s)) idx (s_next_qid s) (s_now s)) qi
  = if qi =? qj then Some v else get_queue s qi.
Proof.
  intros G. unfold get_queue in *; simpl. destruct (qi =? qj) eqn:E.
  - apply N.eqb_eq in E. subst. apply (alookup_update_queue_same _ _ _ _ G).
  - apply alookup_update_queue_other. intros ->. rewrite N.eqb_refl in E. discriminate.
Qed.

Lemma queue_try_submit_lifts s qj r script s' outs sc qi :
  queue_try_submit s qj r script = Ok (s', outs, sc) -> lifts false s s' qi.
Proof.
  intros H. apply queue_try_submit_spec in H.
  destruct H as [(-> & _)|(q & permit & q1 & idx1 & Eq & _ & _ & _ & _ & _ & Hl & ->)]; [apply lifts_refl|].
  apply (submit_loop_qtrans false) in Hl.
  intros v Hv. rewrite (get_queue_update_queue _ _ _ _ _ _ Eq). destruct (qi =? qj) eqn:E.
  - apply N.eqb_eq in E. subst. rewrite Eq in Hv. inv Hv. exists q1. split; auto.
    eapply qtrans_trans; [|exact Hl]. apply qtrans_prim. apply qp_lim.
  - exists v. split; auto. apply qt_refl.
Qed.

Lemma get_queue_try_pause_all s qi :
  get_queue (try_pause_all s) qi = option_map (try_pause_queue (s_now s)) (get_queue s qi).
Proof.
  unfold get_queue, try_pause_all; simpl. induction (s_queues s) as [|[k v] l IH]; simpl; auto.
  destruct (k =? qi); auto.
Qed.

Lemma try_pause_all_lifts s qi : lifts false s (try_pause_all s) qi.
Proof.
  intros q Hq. rewrite get_queue_try_pause_all, Hq. simpl. eexists. split; eauto.
  apply try_pause_queue_qtrans.
Qed.

Lemma perform_submits_lifts s order resps scripts s' outs qi :
  perform_submits s order resps scripts = Ok (s', outs) -> lifts false s s' qi.
Proof.
  intros H. apply perform_submits_spec in H.
  destruct H as [_ [(_ & -> & _)|(s2 & _ & Hq & ->)]]; [apply try_pause_all_lifts|].
  eapply lifts_trans; [apply try_pause_all_lifts|].
  eapply lifts_trans; [|apply try_pause_all_lifts].
  revert Hq. apply (submit_queues_ind (fun s _ s' => lifts false s s' qi));
    eauto using lifts_refl, lifts_trans, queue_try_submit_lifts.
Qed.

Lemma refresh_queue_allocations_lifts s qj w s' outs qi :
  refresh_queue_allocations s qj w = Ok (s', outs) -> lifts false s s' qi.
Proof.
  intros H. apply refresh_queue_allocations_spec in H.
  destruct H as [(-> & _)|(q & sw & q' & Eq & -> & Hl)]; [apply lifts_refl|].
  eapply lifts_set_queue; eauto.
  destruct (sw_err sw); eauto using refresh_err_loop_qtrans, refresh_loop_qtrans.
Qed.

Lemma worker_event_lifts s id r s' outs qi :
  worker_event s id r = (s', outs) -> lifts false s s' qi.
Proof.
  intros H. apply worker_event_spec in H.
  destruct H as [(-> & _)|(qj & q & q' & _ & Eq & Hs & ->)]; [apply lifts_refl|].
  eapply lifts_set_queue; eauto using sync_allocation_status_qtrans.
Qed.

Definition is_resume_of (o : op) (qi : qid) : bool :=
  match o with OResume q => q =? qi | _ => false end.

Lemma lifts_qtrans s o s1 qi q :
  lifts false s s1 qi -> get_queue s qi = Some q ->
  match get_queue s1 qi with
  | Some q' => qtrans (is_resume_of o qi) q q'
  | None => exists force, o = ORemove qi force
  end.
Proof. intros L Hq. destruct (L _ Hq) as (q' & G & T). rewrite G. now apply qtrans_weaken. Qed.

Theorem step_qtrans s o s' outs qi q :
  step s o = Ok (s', outs) -> get_queue s qi = Some q ->
  match get_queue s' qi with
  | Some q' => qtrans (is_resume_of o qi) q q'
  | None => exists force, o = ORemove qi force
  end.
Proof.
  intros H. revert H q.
  apply (step_cases (fun s o _ s' => forall q, get_queue s qi = Some q ->
    match get_queue s' qi with
    | Some q' => qtrans (is_resume_of o qi) q q'
    | None => exists force, o = ORemove qi force
    end)); clear - qi.
  - intros. eapply lifts_qtrans; eauto using lifts_refl.
  - intros s backlog mwpa maxw lim l _ q Hq. unfold get_queue in *; simpl.
    rewrite (alookup_app_some _ _ _ _ Hq). apply qt_refl.
  - intros. eapply lifts_qtrans; eauto using perform_submits_lifts.
  - intros. eapply lifts_qtrans; eauto using queue_try_submit_lifts.
  - intros s order wits s' outs H q. apply lifts_qtrans. revert H.
    apply (periodic_loop_ind (fun s _ s' => lifts false s s' qi));
      eauto using lifts_refl, lifts_trans, refresh_queue_allocations_lifts.
  - intros. eapply lifts_qtrans; eauto using worker_event_lifts.
  - intros s o q0 v f [[-> ->]|[-> ->]] Eq.
    + intros q. apply lifts_qtrans. eapply lifts_set_queue; eauto. apply qtrans_prim. apply qp_pause.
    + intros q Hq. simpl. destruct (N.eq_dec qi q0) as [->|Hne].
      * rewrite (get_queue_set_queue_same _ _ _ _ Eq). rewrite Eq in Hq. inv Hq.
        apply qtrans_prim. apply qp_resume. apply N.eqb_refl.
      * rewrite get_queue_set_queue_other; auto. rewrite Hq. apply qt_refl.
  - intros s q0 force v idx _ _ q Hq. rewrite get_queue_remove. destruct (qi =? q0) eqn:E.
    + apply N.eqb_eq in E. subst. eauto.
    + rewrite Hq. apply qt_refl.
  - intros s d q Hq. unfold get_queue in *; simpl. rewrite Hq. apply qt_refl.
Qed.

Lemma qtrans_params ar q q' : qtrans ar q q' -> same_params q q'.
Proof.
  induction 1; [apply same_params_refl|]. eapply same_params_trans; [exact IHqtrans|].
  inv H0; unfold same_params; simpl; tauto.
Qed.

Lemma qtrans_no_activation q q' : qtrans false q q' -> q_active q' = true -> q_active q = true.
Proof.
  induction 1; auto. intros Ha. apply IHqtrans. inv H0; simpl in *; auto; congruence.
Qed.
