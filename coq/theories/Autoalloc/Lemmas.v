(** Lemmas about the autoalloc model: association lists, limiter, permits, and what each
    function of the model does in terms of the functions it calls. *)
From HQ Require Import Base.Prelude Gen.Consts Autoalloc.Model Autoalloc.Spec.
From Coq Require Import ZifyBool ZifyN ZifyNat Lia.
Open Scope N_scope.
Arguments N.add : simpl never.
Arguments N.sub : simpl never.
Arguments N.mul : simpl never.
Arguments N.div : simpl never.
Arguments N.modulo : simpl never.
Arguments N.eqb : simpl never.
Arguments N.ltb : simpl never.
Arguments N.leb : simpl never.
Arguments N.min : simpl never.
Arguments N.of_nat : simpl never.
Arguments N.to_nat : simpl never.

Ltac inv H := inversion H; subst; clear H.

Lemma assert_or_ok b site u : assert_or b site = Ok u -> b = true.
Proof. destruct b; simpl; congruence. Qed.

Ltac bind_inv H :=
  let x := fresh "x" in let Hx := fresh "Hx" in
  apply bind_ok in H; destruct H as [x [Hx H]].

Lemma alookup_in {A} k (l : list (N * A)) v : alookup k l = Some v -> In (k, v) l.
Proof.
  induction l as [|[k' v'] l IH]; simpl; [discriminate|].
  destruct (k' =? k) eqn:E; intros H.
  - inv H. apply N.eqb_eq in E. subst. now left.
  - right. auto.
Qed.

Lemma in_alookup {A} k (l : list (N * A)) v :
  NoDup (map fst l) -> In (k, v) l -> alookup k l = Some v.
Proof.
  induction l as [|[k' v'] l IH]; simpl; [tauto|].
  intros ND [H|H].
  - inv H. now rewrite N.eqb_refl.
  - inv ND. destruct (k' =? k) eqn:E.
    + apply N.eqb_eq in E. subst. exfalso. apply H2. change k with (fst (k, v)). now apply in_map.
    + auto.
Qed.

Lemma alookup_app {A} k (l1 l2 : list (N * A)) :
  alookup k (l1 ++ l2) = match alookup k l1 with Some v => Some v | None => alookup k l2 end.
Proof. induction l1 as [|[k' v'] l IH]; simpl; auto. destruct (k' =? k); auto. Qed.

Lemma alookup_app_some {A} k (l1 l2 : list (N * A)) v :
  alookup k l1 = Some v -> alookup k (l1 ++ l2) = Some v.
Proof. intros H. now rewrite alookup_app, H. Qed.

Lemma alookup_filter {A} k q (l : list (N * A)) :
  alookup k (filter (fun kv => negb (fst kv =? q)) l) = if k =? q then None else alookup k l.
Proof.
  induction l as [|[k' v'] l IH]; simpl; [now destruct (k =? q)|].
  destruct (k' =? q) eqn:E; simpl; rewrite IH.
  - apply N.eqb_eq in E. subst. rewrite (N.eqb_sym q k). now destruct (k =? q).
  - destruct (k' =? k) eqn:E2; auto. apply N.eqb_eq in E2. subst. now rewrite E.
Qed.

Lemma alookup_update_queue_same q f l v :
  alookup q l = Some v -> alookup q (update_queue q f l) = Some (f v).
Proof.
  induction l as [|[k w] l IH]; simpl; [discriminate|].
  destruct (k =? q) eqn:E; simpl; rewrite E; intros H.
  - now inv H.
  - auto.
Qed.

Lemma alookup_update_queue_other q q' f l :
  q' <> q -> alookup q' (update_queue q f l) = alookup q' l.
Proof.
  intros Hne. induction l as [|[k w] l IH]; simpl; [reflexivity|].
  destruct (k =? q) eqn:E; simpl.
  - apply N.eqb_eq in E. subst. destruct (q =? q') eqn:E2; [apply N.eqb_eq in E2; congruence|auto].
  - destruct (k =? q'); auto.
Qed.

Lemma alookup_update_queue_none q q' f l :
  alookup q' l = None -> alookup q' (update_queue q f l) = None.
Proof.
  induction l as [|[k w] l IH]; simpl; [reflexivity|].
  destruct (k =? q') eqn:E; [discriminate|]. intros H.
  destruct (k =? q); simpl; rewrite E; auto.
Qed.

Lemma update_queue_keys q f l : map fst (update_queue q f l) = map fst l.
Proof.
  induction l as [|[k w] l IH]; simpl; [reflexivity|].
  destruct (k =? q); simpl; now rewrite IH.
Qed.

Lemma Forall_update_queue (P : queue -> Prop) q f l :
  Forall (fun kv => P (snd kv)) l ->
  (forall v, P v -> P (f v)) ->
  Forall (fun kv => P (snd kv)) (update_queue q f l).
Proof.
  intros HF Hf. induction HF as [|[k w] l Hx HF IH]; simpl; constructor; auto.
  destruct (k =? q); simpl in *; auto.
Qed.

Lemma Forall_alookup {A} (P : A -> Prop) k (l : list (N * A)) v :
  Forall (fun kv => P (snd kv)) l -> alookup k l = Some v -> P v.
Proof.
  intros HF H. apply alookup_in in H. rewrite Forall_forall in HF. apply (HF _ H).
Qed.

Lemma Forall_set_queue (P : queue -> Prop) s q v :
  Forall (fun kv => P (snd kv)) (s_queues s) -> P v ->
  Forall (fun kv => P (snd kv)) (s_queues (set_queue s q v)).
Proof.
  intros HF Hv. unfold set_queue; simpl. apply Forall_update_queue; auto.
Qed.

Lemma get_queue_set_queue_same s q v v0 :
  get_queue s q = Some v0 -> get_queue (set_queue s q v) q = Some v.
Proof. unfold get_queue, set_queue; simpl. intros H. now rewrite (alookup_update_queue_same _ _ _ _ H). Qed.

Lemma get_queue_set_queue_other s q q' v :
  q' <> q -> get_queue (set_queue s q v) q' = get_queue s q'.
Proof. unfold get_queue, set_queue; simpl. intros. now apply alookup_update_queue_other. Qed.

Lemma get_queue_remove s qi idx qj :
  get_queue (mkSt (filter (fun kv => negb (fst kv =? qi)) (s_queues s)) idx (s_next_qid s) (s_now s)) qj
  = if qj =? qi then None else get_queue s qj.
Proof. apply alookup_filter. Qed.

Lemma lim_ok_increase l : lim_ok l = true -> lim_ok (increase_delay l) = true.
Proof.
  unfold lim_ok, increase_delay. intros H.
  destruct (l_level l <? N.of_nat (length (l_delays l)) - 1) eqn:E; simpl; lia.
Qed.

Lemma lim_ok_pos l : lim_ok l = true -> 0 < N.of_nat (length (l_delays l)).
Proof. unfold lim_ok. lia. Qed.

Lemma lim_ok_on_submission_success l : lim_ok l = true -> lim_ok (on_submission_success l) = true.
Proof. unfold lim_ok, on_submission_success; simpl. destruct (l_afails l =? 0); lia. Qed.
Lemma lim_ok_on_submission_fail l : lim_ok l = true -> lim_ok (on_submission_fail l) = true.
Proof. intros. unfold on_submission_fail. apply lim_ok_increase. exact H. Qed.
Lemma lim_ok_on_allocation_success l : lim_ok l = true -> lim_ok (on_allocation_success l) = true.
Proof. unfold lim_ok, on_allocation_success; simpl. lia. Qed.
Lemma lim_ok_on_allocation_fail l : lim_ok l = true -> lim_ok (on_allocation_fail l) = true.
Proof. intros. unfold on_allocation_fail. apply lim_ok_increase. exact H. Qed.
Lemma lim_ok_on_submission_attempt now l : lim_ok l = true -> lim_ok (on_submission_attempt now l) = true.
Proof. unfold lim_ok; simpl. auto. Qed.
Lemma lim_ok_on_queue_resumed l : lim_ok l = true -> lim_ok (on_queue_resumed l) = true.
Proof. unfold lim_ok; simpl. auto. Qed.
Lemma lim_ok_new delays sf af : delays <> [] -> lim_ok (new_limiter delays sf af) = true.
Proof. unfold lim_ok, new_limiter; simpl. destruct delays; [congruence|]. simpl. lia. Qed.
Lemma lim_ok_default : lim_ok default_limiter = true.
Proof. vm_compute. reflexivity. Qed.

Lemma exhausted_status now l :
  lim_exhausted l = true <->
  (submission_status now l = LTooManyAlloc \/ submission_status now l = LTooManySub).
Proof.
  unfold lim_exhausted, submission_status.
  destruct (l_maxaf l <=? l_afails l) eqn:E1; simpl.
  - split; auto.
  - destruct (l_maxsf l <=? l_sfails l) eqn:E2; simpl.
    + split; auto.
    + split; [discriminate|]. destruct (l_last l); [destruct (_ <? _)|]; intros [H|H]; discriminate.
Qed.

Lemma status_ok_iff now l :
  submission_status now l = LOk <-> (lim_exhausted l = false /\ backoff_elapsed now l = true).
Proof.
  unfold lim_exhausted, submission_status, backoff_elapsed.
  destruct (l_maxaf l <=? l_afails l) eqn:E1; simpl; [split; [discriminate|intros [? ?]; discriminate]|].
  destruct (l_maxsf l <=? l_sfails l) eqn:E2; simpl; [split; [discriminate|intros [? ?]; discriminate]|].
  destruct (l_last l); [destruct (_ <? _)|]; simpl; split; try tauto; try discriminate; intros [? ?]; discriminate.
Qed.

Definition qcount (l : list alloc) : N := N.of_nat (length (filter is_queued l)).
Definition acount (l : list alloc) : N := sum_targets (filter is_active l).

Lemma queued_count_eq q : queued_count q = qcount (q_allocs q).
Proof. reflexivity. Qed.
Lemma active_worker_count_eq q : active_worker_count q = acount (q_allocs q).
Proof. reflexivity. Qed.

Lemma sum_targets_app l1 l2 : sum_targets (l1 ++ l2) = sum_targets l1 + sum_targets l2.
Proof. induction l1; simpl; [lia|]. rewrite IHl1. lia. Qed.

Lemma qcount_app l1 l2 : qcount (l1 ++ l2) = qcount l1 + qcount l2.
Proof. unfold qcount. rewrite filter_app, app_length. lia. Qed.
Lemma acount_app l1 l2 : acount (l1 ++ l2) = acount l1 + acount l2.
Proof. unfold acount. rewrite filter_app, sum_targets_app. reflexivity. Qed.

Lemma qcount_new id n : qcount [new_alloc id n] = 1.
Proof. reflexivity. Qed.
Lemma acount_new id n : acount [new_alloc id n] = n.
Proof. unfold acount; simpl. lia. Qed.

Definition alloc_le (a a' : alloc) : Prop :=
  a_id a' = a_id a /\ a_target a' = a_target a
  /\ (is_queued a' = true -> is_queued a = true)
  /\ (is_active a' = true -> is_active a = true).

Lemma alloc_le_refl a : alloc_le a a.
Proof. unfold alloc_le; tauto. Qed.

Lemma alloc_le_trans a b c : alloc_le a b -> alloc_le b c -> alloc_le a c.
Proof. unfold alloc_le. intros (?&?&?&?) (?&?&?&?). repeat split; try congruence; auto. Qed.

Lemma Forall2_alloc_le_refl l : Forall2 alloc_le l l.
Proof. induction l; constructor; auto using alloc_le_refl. Qed.

Lemma Forall2_alloc_le_trans l1 l2 l3 :
  Forall2 alloc_le l1 l2 -> Forall2 alloc_le l2 l3 -> Forall2 alloc_le l1 l3.
Proof.
  intros H. revert l3. induction H; intros l3 H3; inv H3; constructor; eauto using alloc_le_trans.
Qed.

Lemma Forall2_alloc_le_counts l l' :
  Forall2 alloc_le l l' -> qcount l' <= qcount l /\ acount l' <= acount l.
Proof.
  unfold qcount, acount. induction 1 as [|a a' l l' Ha _ IH]; simpl; [lia|].
  destruct Ha as (_ & Ht & Hq & Hact).
  destruct (is_queued a') eqn:Eq'; [rewrite (Hq eq_refl)|destruct (is_queued a)];
  (destruct (is_active a') eqn:Ea'; [rewrite (Hact eq_refl)|destruct (is_active a)]); simpl; lia.
Qed.

Lemma Forall2_alloc_le_sizes mwpa l l' :
  Forall2 alloc_le l l' -> forallb (size_ok mwpa) l = true -> forallb (size_ok mwpa) l' = true.
Proof.
  induction 1 as [|a a' l l' Ha _ IH]; simpl; [auto|].
  rewrite !andb_true_iff. intros [H1 H2]. split; auto.
  destruct Ha as (_ & Ht & _). unfold size_ok in *. rewrite Ht. exact H1.
Qed.

Lemma update_alloc_le id a' l :
  (forall a, In a l -> a_id a = id -> alloc_le a a') ->
  Forall2 alloc_le l (update_alloc id (fun _ => a') l).
Proof.
  induction l as [|a l IH]; simpl; intros H; constructor.
  - destruct (a_id a =? id) eqn:E; [apply N.eqb_eq in E; apply H; auto|apply alloc_le_refl].
  - apply IH. intros; apply H; auto.
Qed.

Lemma find_alloc_in id l a : find_alloc id l = Some a -> In a l /\ a_id a = id.
Proof.
  unfold find_alloc. intros H. apply find_some in H. destruct H as [H1 H2].
  apply N.eqb_eq in H2. auto.
Qed.

Lemma update_alloc_ids id f l :
  (forall a, a_id (f a) = a_id a) -> map a_id (update_alloc id f l) = map a_id l.
Proof.
  intros Hf. induction l as [|a l IH]; simpl; [reflexivity|].
  rewrite IH. destruct (a_id a =? id); [rewrite Hf|]; reflexivity.
Qed.

Definition qinv (q : queue) : Prop :=
  qcount (q_allocs q) <= q_backlog q
  /\ (forall m, q_maxw q = Some m -> acount (q_allocs q) <= m)
  /\ forallb (size_ok (q_mwpa q)) (q_allocs q) = true
  /\ lim_ok (q_lim q) = true.

Lemma qinv_iff q : queue_limits_ok q = true <-> qinv q.
Proof.
  unfold queue_limits_ok, qinv. rewrite !andb_true_iff, queued_count_eq, active_worker_count_eq.
  split.
  - intros [[[H1 H2] H3] H4]. repeat split; auto; [lia|]. intros m Hm. rewrite Hm in H2. lia.
  - intros (H1 & H2 & H3 & H4). repeat split; auto; [lia|].
    destruct (q_maxw q) as [m|]; [specialize (H2 m eq_refl); lia|reflexivity].
Qed.

Definition same_params (q q' : queue) : Prop :=
  q_backlog q' = q_backlog q /\ q_mwpa q' = q_mwpa q /\ q_maxw q' = q_maxw q.

Lemma same_params_refl q : same_params q q.
Proof. unfold same_params; tauto. Qed.
Lemma same_params_trans a b c : same_params a b -> same_params b c -> same_params a c.
Proof. unfold same_params. intros (?&?&?) (?&?&?). repeat split; congruence. Qed.

Definition queue_le (q q' : queue) : Prop :=
  same_params q q' /\ Forall2 alloc_le (q_allocs q) (q_allocs q')
  /\ (lim_ok (q_lim q) = true -> lim_ok (q_lim q') = true).

Lemma queue_le_refl q : queue_le q q.
Proof. unfold queue_le. split; [apply same_params_refl|]. split; [apply Forall2_alloc_le_refl|auto]. Qed.
Lemma queue_le_trans a b c : queue_le a b -> queue_le b c -> queue_le a c.
Proof.
  unfold queue_le. intros (?&?&?) (?&?&?).
  split; [eauto using same_params_trans|]. split; [eauto using Forall2_alloc_le_trans|auto].
Qed.

Lemma queue_le_allocs q q' :
  same_params q q' -> q_allocs q' = q_allocs q -> (lim_ok (q_lim q) = true -> lim_ok (q_lim q') = true) ->
  queue_le q q'.
Proof. intros P E L. split; [exact P|]. split; [rewrite E; apply Forall2_alloc_le_refl|exact L]. Qed.

Lemma queue_le_qinv q q' : queue_le q q' -> qinv q -> qinv q'.
Proof.
  intros ((Hb & Hm & Hw) & Hall & Hl) (H1 & H2 & H3 & H4).
  destruct (Forall2_alloc_le_counts _ _ Hall) as [Hq Ha].
  unfold qinv. rewrite Hb, Hm, Hw. repeat split; auto.
  - lia.
  - intros m Hm'. specialize (H2 m Hm'). lia.
  - eapply Forall2_alloc_le_sizes; eauto.
Qed.

Fixpoint sum_list (l : list N) : N := match l with [] => 0 | x :: r => x + sum_list r end.

Lemma permit_loop_props mwpa cands : forall remaining out,
  permit_loop mwpa cands remaining = Ok out ->
  (length out <= length cands)%nat /\ sum_list out <= remaining
  /\ Forall (fun n => 1 <= n /\ n <= mwpa) out.
Proof.
  induction cands as [|t r IH]; simpl; intros remaining out H.
  - inv H. simpl. repeat split; auto; lia.
  - bind_inv H. apply assert_or_ok in Hx.
    destruct (N.min t remaining =? 0) eqn:E.
    + inv H. simpl. repeat split; auto; lia.
    + bind_inv H. inv H. destruct (IH _ _ Hx0) as (L & S & F).
      simpl. repeat split; [lia|lia|]. constructor; auto. lia.
Qed.

Lemma gen_allocs_length fuel : forall mn mnw full mwpa rem,
  (length (gen_allocs fuel mn mnw full mwpa rem) <= fuel)%nat.
Proof.
  induction fuel as [|f IH]; simpl; intros; [lia|].
  destruct (0 <? mn); simpl; [specialize (IH (mn - 1) mnw full mwpa rem); lia|].
  destruct (0 <? full); simpl; [specialize (IH mn mnw (full - 1) mwpa rem); lia|].
  destruct (negb (rem =? 0)); simpl; lia.
Qed.

Lemma permit_props q r p :
  compute_submission_permit q r = Ok p ->
  N.of_nat (length p) <= q_backlog q - qcount (q_allocs q)
  /\ (forall m, q_maxw q = Some m -> sum_list p <= m - acount (q_allocs q))
  /\ Forall (fun n => 1 <= n /\ n <= q_mwpa q) p.
Proof.
  unfold compute_submission_permit. intros H. bind_inv H. clear Hx x.
  rewrite active_worker_count_eq in H.
  destruct (_ =? 0) eqn:E0 in H.
  - inv H. simpl. repeat split; auto; try lia; intros; lia.
  - destruct (permit_step1 _ _ _ _) as [mn sn]. bind_inv H. clear Hx x.
    apply permit_loop_props in H. destruct H as (L & S & F).
    pose proof (gen_allocs_length (N.to_nat (q_backlog q - N.of_nat (length (filter is_queued (q_allocs q)))))
                  mn (resp_mnw r) (sn / q_mwpa q) (q_mwpa q) (sn mod q_mwpa q)) as G.
    unfold qcount. repeat split; auto; [lia|].
    intros m Hm. rewrite Hm in S. exact S.
Qed.

Lemma permit_empty_resp q r p :
  compute_submission_permit q r = Ok p -> resp_is_empty r = true -> p = [].
Proof.
  unfold compute_submission_permit, resp_is_empty. intros H Hr.
  apply andb_true_iff in Hr. destruct Hr as [Hs Hm].
  bind_inv H. destruct (_ =? 0) in H; [now inv H|].
  assert (Hst : forall l, permit_step1 (resp_mnw r) l 0 0 = (0, 0)).
  { induction l as [|a l IH]; simpl; auto. }
  apply N.eqb_eq in Hs, Hm. rewrite Hs, Hm, Hst in H.
  bind_inv H. apply assert_or_ok in Hx0.
  replace (0 / q_mwpa q) with 0 in H by (symmetry; apply N.div_0_l; lia).
  replace (0 mod q_mwpa q) with 0 in H by (symmetry; apply N.mod_0_l; lia).
  destruct (N.to_nat _) in H; simpl in H; [now inv H|].
  replace (0 <? 0) with false in H by reflexivity. simpl in H. now inv H.
Qed.

(** After each accepted submission it goes on with the new allocation appended, the submission
    counted as a success and the index extended; a rejected one ends it.  A relation between what
    is left of the permit, queue and index before, the outputs, and queue and index after that
    holds of these three cases holds of the loop. *)
Section SubmitLoop.
  Variables (qi : qid)
            (R : list N -> queue -> list (aid * qid) -> list out -> queue -> list (aid * qid) -> Prop).
  Hypothesis R_nil : forall q idx, R [] q idx [] q idx.
  Hypothesis R_ok : forall n rest q idx id o q2 idx2,
    alookup id idx = None -> find_alloc id (q_allocs q) = None ->
    R rest (set_lim (on_submission_success (q_lim q)) (set_allocs (q_allocs q ++ [new_alloc id n]) q))
      ((id, qi) :: idx) o q2 idx2 ->
    R (n :: rest) q idx (OutSubmit qi n :: EvQueued qi id n :: o) q2 idx2.
  Hypothesis R_fail : forall n rest q idx,
    R (n :: rest) q idx [OutSubmit qi n] (set_lim (on_submission_fail (q_lim q)) q) idx.

  Lemma submit_loop_ind permit : forall script q idx q2 idx2 outs sc,
    submit_loop qi permit script q idx = Ok (q2, idx2, outs, sc) -> R permit q idx outs q2 idx2.
  Proof.
    induction permit as [|n rest IH]; simpl; intros script q idx q2 idx2 outs sc H; [inv H; apply R_nil|].
    destruct script as [|[id| |] script']; [discriminate| |inv H; apply R_fail|inv H; apply R_fail].
    destruct (alookup id idx) eqn:Ei; [discriminate|]. bind_inv H. apply assert_or_ok in Hx.
    destruct (find_alloc id (q_allocs q)) eqn:Ef; [discriminate|].
    bind_inv H. destruct x0 as [[[q2' idx2'] outs'] sc']. inv H. eauto.
  Qed.
End SubmitLoop.

Lemma submit_loop_params qi permit : forall script q idx q2 idx2 outs sc,
  submit_loop qi permit script q idx = Ok (q2, idx2, outs, sc) ->
  same_params q q2 /\ q_active q2 = q_active q.
Proof.
  intros script q idx q2 idx2 outs sc.
  apply (submit_loop_ind qi (fun _ q _ _ q2 _ => same_params q q2 /\ q_active q2 = q_active q)).
  - intros. split; [apply same_params_refl|reflexivity].
  - intros n rest q0 idx0 id o q3 idx3 _ _ [Hp Ha]. split; [|exact Ha].
    eapply same_params_trans; [|exact Hp]. unfold same_params; simpl; tauto.
  - intros. split; [unfold same_params; simpl; tauto|reflexivity].
Qed.

Lemma submit_loop_qinv qi permit script q idx q2 idx2 outs sc :
  submit_loop qi permit script q idx = Ok (q2, idx2, outs, sc) ->
  qcount (q_allocs q) + N.of_nat (length permit) <= q_backlog q ->
  (forall m, q_maxw q = Some m -> acount (q_allocs q) + sum_list permit <= m) ->
  forallb (size_ok (q_mwpa q)) (q_allocs q) = true ->
  Forall (fun n => 1 <= n /\ n <= q_mwpa q) permit ->
  lim_ok (q_lim q) = true ->
  qinv q2.
Proof.
  apply (submit_loop_ind qi (fun permit q _ _ q2 _ =>
    qcount (q_allocs q) + N.of_nat (length permit) <= q_backlog q ->
    (forall m, q_maxw q = Some m -> acount (q_allocs q) + sum_list permit <= m) ->
    forallb (size_ok (q_mwpa q)) (q_allocs q) = true ->
    Forall (fun n => 1 <= n /\ n <= q_mwpa q) permit ->
    lim_ok (q_lim q) = true -> qinv q2)); clear; simpl.
  - intros q _ Hb Hm Hs _ Hl. repeat split; auto; [lia|]. intros m Hm'. specialize (Hm m Hm'). lia.
  - intros n rest q _ id _ q2 _ _ _ IH Hb Hm Hs Hp Hl. inv Hp. apply IH; simpl.
    + rewrite qcount_app, qcount_new. clear - Hb. lia.
    + intros m Hm'. specialize (Hm m Hm'). rewrite acount_app, acount_new. clear - Hm. lia.
    + rewrite forallb_app, Hs. simpl. unfold size_ok; simpl. lia.
    + assumption.
    + now apply lim_ok_on_submission_success.
  - intros n rest q _ Hb Hm Hs _ Hl. repeat split; simpl; auto; [lia| |now apply lim_ok_on_submission_fail].
    intros m Hm'. specialize (Hm m Hm'). lia.
Qed.

Lemma submit_loop_outs qi permit script q idx q2 idx2 outs sc :
  submit_loop qi permit script q idx = Ok (q2, idx2, outs, sc) ->
  (forall q' , has_submit q' outs = true -> q' = qi)
  /\ (permit <> [] -> has_submit qi outs = true).
Proof.
  apply (submit_loop_ind qi (fun permit _ _ outs _ _ =>
    (forall q', has_submit q' outs = true -> q' = qi) /\ (permit <> [] -> has_submit qi outs = true))); clear.
  - intros. split; [simpl; discriminate|congruence].
  - intros n rest _ _ id o _ _ _ _ [H1 _]. split; [|intros _; simpl; now rewrite N.eqb_refl].
    intros q'. simpl. rewrite orb_true_iff. intros [E|E]; [apply N.eqb_eq in E|]; auto.
  - intros n rest _ _. split; [|intros _; simpl; now rewrite N.eqb_refl].
    intros q'. simpl. rewrite orb_false_r. intros E. now apply N.eqb_eq in E.
Qed.

(** outputs of status synchronisation are AllocationStarted / AllocationFinished events only *)
Definition status_events (outs : list out) : Prop :=
  Forall (fun o => match o with EvStarted _ _ | EvFinished _ _ => True | _ => False end) outs.

Lemma status_events_app l1 l2 : status_events l1 -> status_events l2 -> status_events (l1 ++ l2).
Proof. unfold status_events. intros. apply Forall_app. auto. Qed.

(** * The call structure of the model
    Each [_spec] lemma says once what a function of the model does in terms of the functions it
    calls.  Each [_ind] principle says that a relation between the state before, the outputs and
    the state after which holds of doing nothing, is closed under sequencing and holds of every
    call made by a loop, holds of the loop. *)

(** what [sync_allocation_status] appends to the events of [sync_alloc] and does to the limiter *)
Definition fin_events (qi : qid) (id : aid) (fin : option fin_kind) : list out :=
  match fin with Some _ => [EvFinished qi id] | None => [] end.
Definition fin_lim (fin : option fin_kind) (l : limiter) : limiter :=
  match fin with
  | Some FinSuccess => on_allocation_success l
  | Some FinFailure => on_allocation_fail l
  | None => l
  end.

Lemma lim_ok_fin_lim fin l : lim_ok l = true -> lim_ok (fin_lim fin l) = true.
Proof. destruct fin as [[|]|]; simpl; auto using lim_ok_on_allocation_success, lim_ok_on_allocation_fail. Qed.

Lemma sync_allocation_status_spec qi q id r q' outs :
  sync_allocation_status qi q id r = (q', outs) ->
  match find_alloc id (q_allocs q) with
  | None => q' = q /\ outs = []
  | Some a => exists a' evs fin,
      sync_alloc qi a r = (a', evs, fin)
      /\ q' = set_lim (fin_lim fin (q_lim q)) (set_allocs (update_alloc id (fun _ => a') (q_allocs q)) q)
      /\ outs = evs ++ fin_events qi id fin
  end.
Proof.
  unfold sync_allocation_status. destruct (find_alloc id (q_allocs q)) as [a|]; [|intros H; inv H; auto].
  destruct (sync_alloc qi a r) as [[a' evs] fin]. intros H. exists a', evs, fin.
  destruct fin as [[|]|]; inv H; simpl; rewrite ?app_nil_r; auto.
Qed.

(** the status-error arm of both refresh loops *)
Definition bump (qi : qid) (q : queue) (id : aid) : queue * list out :=
  match find_alloc id (q_allocs q) with
  | Some a => let '(a', evs) := increase_status_error_counter qi a in
              (set_allocs (update_alloc id (fun _ => a') (q_allocs q)) q, evs)
  | None => (q, [])
  end.

Lemma bump_spec qi q id q' outs :
  bump qi q id = (q', outs) ->
  match find_alloc id (q_allocs q) with
  | None => q' = q /\ outs = []
  | Some a => exists a', increase_status_error_counter qi a = (a', outs)
                         /\ q' = set_allocs (update_alloc id (fun _ => a') (q_allocs q)) q
  end.
Proof.
  unfold bump. destruct (find_alloc id (q_allocs q)) as [a|]; [|intros H; inv H; auto].
  destruct (increase_status_error_counter qi a) as [a' evs]. intros H. inv H. eauto.
Qed.

Section QueueLoops.
  Variables (qi : qid) (R : queue -> list out -> queue -> Prop).
  Hypothesis R_nil : forall q, R q [] q.
  Hypothesis R_app : forall q1 o1 q2 o2 q3, R q1 o1 q2 -> R q2 o2 q3 -> R q1 (o1 ++ o2) q3.
  Hypothesis R_bump : forall q id q' o, bump qi q id = (q', o) -> R q o q'.

  Lemma refresh_err_loop_ind order : forall q q' outs,
    refresh_err_loop qi q order = (q', outs) -> R q outs q'.
  Proof.
    induction order as [|id rest IH]; simpl; intros q q' outs H; [inv H; apply R_nil|].
    fold (bump qi q id) in H. destruct (bump qi q id) as [q1 o1] eqn:E1.
    destruct (refresh_err_loop qi q1 rest) as [q2 o2] eqn:E2. inv H. eauto.
  Qed.

  Hypothesis R_sync : forall q id x r q' o,
    reason_of x = Some r -> sync_allocation_status qi q id r = (q', o) -> R q o q'.

  Lemma refresh_loop_ind sts : forall q q' outs,
    refresh_loop qi q sts = (q', outs) -> R q outs q'.
  Proof.
    induction sts as [|[id x] rest IH]; simpl; intros q q' outs H; [inv H; apply R_nil|].
    destruct (reason_of x) as [r|] eqn:Er.
    - destruct (sync_allocation_status qi q id r) as [q1 o1] eqn:E1.
      destruct (refresh_loop qi q1 rest) as [q2 o2] eqn:E2. inv H. eauto.
    - fold (bump qi q id) in H. destruct (bump qi q id) as [q1 o1] eqn:E1.
      destruct (refresh_loop qi q1 rest) as [q2 o2] eqn:E2. inv H. eauto.
  Qed.
End QueueLoops.

Lemma refresh_queue_allocations_spec s qi w s' outs :
  refresh_queue_allocations s qi w = Ok (s', outs) ->
  (s' = s /\ outs = [])
  \/ exists q sw q', get_queue s qi = Some q /\ s' = set_queue s qi q'
       /\ (if sw_err sw then refresh_err_loop qi q (map fst (sw_sts sw))
           else refresh_loop qi q (sw_sts sw)) = (q', outs).
Proof.
  unfold refresh_queue_allocations. intros H.
  destruct (get_queue s qi) as [q|]; [|inv H; auto].
  destruct (active_ids q); [destruct w; [discriminate|inv H; auto]|].
  destruct w as [sw|]; [|discriminate]. destruct (negb (perm_of _ _)); [discriminate|].
  right. exists q, sw. destruct (if sw_err sw then _ else _) as [q' o']. inv H. eauto.
Qed.

Lemma worker_event_spec s id r s' outs :
  worker_event s id r = (s', outs) ->
  (s' = s /\ outs = []
   /\ match alookup id (s_index s) with Some qi => get_queue s qi = None | None => True end)
  \/ exists qi q q', alookup id (s_index s) = Some qi /\ get_queue s qi = Some q
       /\ sync_allocation_status qi q id r = (q', outs) /\ s' = set_queue s qi q'.
Proof.
  unfold worker_event. intros H.
  destruct (alookup id (s_index s)) as [qi|]; [|inv H; auto].
  destruct (get_queue s qi) as [q|] eqn:Eq; [|inv H; auto].
  destruct (sync_allocation_status qi q id r) as [q' o'] eqn:Es. inv H. right. exists qi, q, q'. repeat split; auto.
Qed.

Lemma queue_try_submit_spec s qi r script s' outs sc :
  queue_try_submit s qi r script = Ok (s', outs, sc) ->
  (s' = s /\ outs = [] /\ sc = script)
  \/ exists q permit q1 idx1,
       get_queue s qi = Some q /\ q_active q = true /\ resp_is_empty r = false
       /\ compute_submission_permit q r = Ok permit /\ permit <> []
       /\ submission_status (s_now s) (q_lim q) = LOk
       /\ submit_loop qi permit script (set_lim (on_submission_attempt (s_now s) (q_lim q)) q) (s_index s)
          = Ok (q1, idx1, outs, sc)
       /\ s' = mkSt (update_queue qi (fun _ => q1) (s_queues s)) idx1 (s_next_qid s) (s_now s).
Proof.
  unfold queue_try_submit. intros H.
  destruct (resp_is_empty r); [inv H; auto|].
  destruct (get_queue s qi) as [q|]; [|inv H; auto].
  destruct (q_active q) eqn:Ea; [|inv H; auto]. simpl in H.
  bind_inv H. destruct x as [|p0 permit]; [inv H; auto|].
  destruct (submission_status (s_now s) (q_lim q)) eqn:Est; try (inv H; auto; fail).
  bind_inv H. destruct x as [[[q1 idx1] outs1] sc1]. inv H.
  right. exists q, (p0 :: permit), q1, idx1. repeat split; auto. discriminate.
Qed.

Lemma perform_submits_spec s order resps scripts s' outs :
  perform_submits s order resps scripts = Ok (s', outs) ->
  perm_of order (active_qids (try_pause_all s)) = true
  /\ (((active_qids (try_pause_all s) = [] \/ all_no_space (s_queues (try_pause_all s)) = Ok true)
       /\ s' = try_pause_all s /\ outs = [])
      \/ exists s2, all_no_space (s_queues (try_pause_all s)) = Ok false
           /\ submit_queues (try_pause_all s) order resps scripts = Ok (s2, outs)
           /\ s' = try_pause_all s2).
Proof.
  unfold perform_submits. intros H.
  destruct (perm_of order _); [split; [reflexivity|]|discriminate]. simpl in H.
  destruct (negb (forallb resp_valid resps)); [discriminate|].
  destruct (active_qids (try_pause_all s)); [inv H; auto|].
  bind_inv H. destruct x; [inv H; auto|].
  bind_inv H. bind_inv H. destruct x0 as [s2 o2]. inv H. eauto.
Qed.

Lemma step_add_queue s backlog mwpa maxw lim s' outs :
  step s (OAddQueue backlog mwpa maxw lim) = Ok (s', outs) ->
  exists l, lim_ok l = true /\ s' = fst (add_queue s backlog mwpa maxw l)
            /\ outs = [OutRet true; EvQueueCreated (s_next_qid s)].
Proof.
  simpl. destruct lim as [[[delays sf] af]|]; [destruct delays as [|d ds]; [discriminate|]|]; intros H; inv H.
  - exists (new_limiter (d :: ds) sf af). split; [apply lim_ok_new; discriminate|auto].
  - exists default_limiter. split; [apply lim_ok_default|auto].
Qed.

Lemma get_queue_add_queue s backlog mwpa maxw lim qi q :
  get_queue (fst (add_queue s backlog mwpa maxw lim)) qi = Some q -> get_queue s qi = Some q \/ q_allocs q = [].
Proof.
  unfold get_queue; simpl. rewrite alookup_app. destruct (alookup qi (s_queues s)); auto.
  simpl. destruct (s_next_qid s =? qi); [intros H; inv H; auto|discriminate].
Qed.

Lemma remove_queue_spec s qi force s' outs :
  remove_queue s qi force = Ok (s', outs) ->
  (s' = s /\ outs = [OutRet false])
  \/ exists q idx, get_queue s qi = Some q
       /\ index_remove_all (map a_id (q_allocs q)) (s_index s) = Ok idx
       /\ s' = mkSt (filter (fun kv => negb (fst kv =? qi)) (s_queues s)) idx (s_next_qid s) (s_now s)
       /\ outs = OutRet true :: map (fun a => OutRemove qi (a_id a)) (filter is_active (q_allocs q))
                 ++ [EvQueueRemoved qi].
Proof.
  unfold remove_queue. intros H. destruct (get_queue s qi) as [q|]; [|inv H; auto].
  destruct (existsb is_running (q_allocs q) && negb force); [inv H; auto|].
  bind_inv H. inv H. right. exists q, x. repeat split; auto.
Qed.

Section StateLoops.
  Variable S : state -> list out -> state -> Prop.
  Hypothesis S_nil : forall s, S s [] s.
  Hypothesis S_app : forall s1 o1 s2 o2 s3, S s1 o1 s2 -> S s2 o2 s3 -> S s1 (o1 ++ o2) s3.

  Lemma periodic_loop_ind :
    (forall s qi w s' o, refresh_queue_allocations s qi w = Ok (s', o) -> S s o s') ->
    forall order s wits s' outs, periodic_loop s order wits = Ok (s', outs) -> S s outs s'.
  Proof.
    intros Hr. induction order as [|qi order IH]; simpl; intros s wits s' outs H; [inv H; apply S_nil|].
    bind_inv H. destruct x as [s1 o1]. bind_inv H. destruct x as [s2 o2]. inv H. eauto.
  Qed.

  Lemma submit_queues_ind :
    (forall s qi r sc s' o sc', queue_try_submit s qi r sc = Ok (s', o, sc') -> S s o s') ->
    forall order s resps scripts s' outs, submit_queues s order resps scripts = Ok (s', outs) -> S s outs s'.
  Proof.
    intros Hq. induction order as [|qi order IH]; simpl; intros s resps scripts s' outs H; [inv H; apply S_nil|].
    destruct resps as [|r resps]; [inv H; apply S_nil|].
    bind_inv H. destruct x as [[s1 o1] sc1]. bind_inv H. destruct x as [s2 o2]. inv H. eauto.
  Qed.
End StateLoops.

(** * The cases of [step]
    A relation between the state before, the operation, the outputs and the state after holds of
    every step if it holds of each of the nine things a step can be. *)
Definition worker_op (o : op) : option (aid * sync_reason) :=
  match o with
  | OConnect w a => Some (a, RConnected w)
  | OLost w a c => Some (a, RLost w c)
  | _ => None
  end.

Section StepCases.
  Variable S : state -> op -> list out -> state -> Prop.
  (* OJob, pause / resume of an unknown queue, removal refused *)
  Hypothesis S_same : forall s o b, worker_op o = None -> S s o [OutRet b] s.
  Hypothesis S_add : forall s backlog mwpa maxw lim l, lim_ok l = true ->
    S s (OAddQueue backlog mwpa maxw lim) [OutRet true; EvQueueCreated (s_next_qid s)]
      (fst (add_queue s backlog mwpa maxw l)).
  Hypothesis S_tick : forall s order resps scripts s' outs,
    perform_submits s order resps scripts = Ok (s', outs) -> S s (OTick order resps scripts) outs s'.
  Hypothesis S_try : forall s q r script s' outs sc,
    queue_try_submit s q r script = Ok (s', outs, sc) -> S s (OTry q r script) outs s'.
  Hypothesis S_refresh : forall s order wits s' outs,
    periodic_loop s order wits = Ok (s', outs) -> S s (ORefresh order wits) outs s'.
  Hypothesis S_worker : forall s o a r s' outs,
    worker_op o = Some (a, r) -> worker_event s a r = (s', outs) -> S s o (OutRet true :: outs) s'.
  Hypothesis S_switch : forall s o q v f,
    o = OPause q /\ f = pause \/ o = OResume q /\ f = resume ->
    get_queue s q = Some v -> S s o [OutRet true] (set_queue s q (f v)).
  Hypothesis S_remove : forall s q force v idx,
    get_queue s q = Some v -> index_remove_all (map a_id (q_allocs v)) (s_index s) = Ok idx ->
    S s (ORemove q force)
      (OutRet true :: map (fun a => OutRemove q (a_id a)) (filter is_active (q_allocs v)) ++ [EvQueueRemoved q])
      (mkSt (filter (fun kv => negb (fst kv =? q)) (s_queues s)) idx (s_next_qid s) (s_now s)).
  Hypothesis S_advance : forall s d,
    S s (OAdvance d) [] (mkSt (s_queues s) (s_index s) (s_next_qid s) (s_now s + d)).

  Theorem step_cases s o s' outs : step s o = Ok (s', outs) -> S s o outs s'.
  Proof.
    intros H. destruct o.
    - apply step_add_queue in H. destruct H as (l & Hl & -> & ->). now apply S_add.
    - eapply S_tick; eauto.
    - simpl in H. destruct (negb (resp_valid r)); [discriminate|]. bind_inv H. destruct x as [[s1 o1] sc]. inv H. eauto.
    - simpl in H. unfold do_periodic_update in H. destruct (negb (perm_of _ _)); [discriminate|]. eauto.
    - simpl in H. destruct (worker_event s a (RConnected w)) as [s1 o1] eqn:Ew. inv H. now apply S_worker with a (RConnected w).
    - simpl in H. destruct (worker_event s a (RLost w crashed)) as [s1 o1] eqn:Ew. inv H. now apply S_worker with a (RLost w crashed).
    - inv H. now apply S_same.
    - simpl in H. destruct (get_queue s q) as [v|] eqn:Eq; inv H; [apply (S_switch _ _ q v pause); auto|now apply S_same].
    - simpl in H. destruct (get_queue s q) as [v|] eqn:Eq; inv H; [apply (S_switch _ _ q v resume); auto|now apply S_same].
    - apply remove_queue_spec in H. destruct H as [(-> & ->)|(v & idx & Eq & Hx & -> & ->)]; [now apply S_same|now apply S_remove].
    - inv H. apply S_advance.
  Qed.
End StepCases.
