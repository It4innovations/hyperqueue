(** C17 - automatic allocation respects its limits and submits only on demand. *)
From HQ Require Import Base.Prelude Gen.Consts Autoalloc.Model Autoalloc.Spec Autoalloc.Lemmas Autoalloc.Trans.
Open Scope N_scope.

Inductive Reach : state -> ghost -> Prop :=
| Reach_init q0 : Reach (init_state q0) init_ghost
| Reach_step s g o s' outs :
    Reach s g -> step s o = Ok (s', outs) -> Reach s' (ghost_step s o s' outs g).

Lemma set_allocs_update_le q id a' :
  (forall a, In a (q_allocs q) -> a_id a = id -> alloc_le a a') ->
  queue_le q (set_allocs (update_alloc id (fun _ => a') (q_allocs q)) q).
Proof.
  intros H. unfold queue_le; simpl. split; [unfold same_params; simpl; tauto|]. split; auto.
  apply update_alloc_le. exact H.
Qed.

Lemma nodup_map_inj {A} (f : A -> N) l a b :
  NoDup (map f l) -> In a l -> In b l -> f a = f b -> a = b.
Proof.
  induction l as [|c l IH]; simpl; intros ND Ha Hb E; [tauto|].
  inv ND. destruct Ha as [Ha|Ha], Hb as [Hb|Hb]; subst; auto.
  - exfalso. apply H1. rewrite E. now apply in_map.
  - exfalso. apply H1. rewrite <- E. now apply in_map.
Qed.

(** [update_alloc id (fun _ => a')] replaces every allocation with that id, [find_alloc] returns
    the first one: the lemmas below carry [NoDup] to know that there is only one. *)
Definition ids_nodup (q : queue) : Prop := NoDup (map a_id (q_allocs q)).

Lemma update_found_le q id a a' :
  ids_nodup q -> find_alloc id (q_allocs q) = Some a -> alloc_trans a a' ->
  queue_le q (set_allocs (update_alloc id (fun _ => a') (q_allocs q)) q).
Proof.
  intros ND Hf Ht. apply set_allocs_update_le. intros b Hb Hid.
  apply find_alloc_in in Hf. destruct Hf as [Ha Hida].
  assert (b = a) by (eapply nodup_map_inj; eauto; congruence). subst. now apply alloc_trans_le.
Qed.

Lemma sync_allocation_status_le qi q id r q' outs :
  ids_nodup q -> sync_allocation_status qi q id r = (q', outs) -> queue_le q q'.
Proof.
  intros ND H. apply sync_allocation_status_spec in H.
  destruct (find_alloc id (q_allocs q)) as [a|] eqn:Ef; [|destruct H as [-> _]; apply queue_le_refl].
  destruct H as (a' & evs & fin & Es & -> & _).
  eapply queue_le_trans; [eapply update_found_le; eauto using sync_alloc_trans|].
  apply queue_le_allocs; [unfold same_params; simpl; tauto|reflexivity|apply lim_ok_fin_lim].
Qed.

Lemma bump_le qi q id q' outs : ids_nodup q -> bump qi q id = (q', outs) -> queue_le q q'.
Proof.
  intros ND H. apply bump_spec in H.
  destruct (find_alloc id (q_allocs q)) as [a|] eqn:Ef; [|destruct H as [-> _]; apply queue_le_refl].
  destruct H as (a' & Ei & ->). eapply update_found_le; eauto using bump_trans.
Qed.

Lemma queue_le_ids q q' : queue_le q q' -> map a_id (q_allocs q') = map a_id (q_allocs q).
Proof.
  intros (_ & H & _). induction H as [|a a' l l' Ha _ IH]; simpl; [reflexivity|].
  destruct Ha as (Hid & _). now rewrite Hid, IH.
Qed.

Lemma queue_le_nodup q q' : queue_le q q' -> ids_nodup q -> ids_nodup q'.
Proof. unfold ids_nodup. intros H. now rewrite (queue_le_ids _ _ H). Qed.

Lemma queue_le_seq q1 q2 q3 :
  (ids_nodup q1 -> queue_le q1 q2) -> (ids_nodup q2 -> queue_le q2 q3) -> ids_nodup q1 -> queue_le q1 q3.
Proof. intros H1 H2 ND. specialize (H1 ND). eauto using queue_le_trans, queue_le_nodup. Qed.

Lemma refresh_loop_le qi sts q q' outs :
  ids_nodup q -> refresh_loop qi q sts = (q', outs) -> queue_le q q'.
Proof.
  intros ND H. revert H ND. apply (refresh_loop_ind qi (fun q _ q' => ids_nodup q -> queue_le q q'));
    eauto using queue_le_refl, queue_le_seq, bump_le, sync_allocation_status_le.
Qed.

Lemma refresh_err_loop_le qi order q q' outs :
  ids_nodup q -> refresh_err_loop qi q order = (q', outs) -> queue_le q q'.
Proof.
  intros ND H. revert H ND. apply (refresh_err_loop_ind qi (fun q _ q' => ids_nodup q -> queue_le q q'));
    eauto using queue_le_refl, queue_le_seq, bump_le.
Qed.

Definition qinv2 (q : queue) : Prop := qinv q /\ ids_nodup q.
Definition sinv (s : state) : Prop := Forall (fun kv => qinv2 (snd kv)) (s_queues s).

Lemma queue_le_qinv2 q q' : queue_le q q' -> qinv2 q -> qinv2 q'.
Proof. intros H [H1 H2]. split; [eapply queue_le_qinv; eauto|eapply queue_le_nodup; eauto]. Qed.

Lemma sinv_get s qi q : sinv s -> get_queue s qi = Some q -> qinv2 q.
Proof. unfold sinv, get_queue. intros H1 H2. eapply (Forall_alookup qinv2); eauto. Qed.

Lemma sinv_set_queue s qi v : sinv s -> qinv2 v -> sinv (set_queue s qi v).
Proof. unfold sinv. apply Forall_set_queue. Qed.

Lemma find_alloc_none_notin id l : find_alloc id l = None -> ~ In id (map a_id l).
Proof.
  unfold find_alloc. intros H Hin. apply in_map_iff in Hin. destruct Hin as [a [Ha Hin]].
  eapply find_none in H; eauto. simpl in H. rewrite Ha, N.eqb_refl in H. discriminate.
Qed.

Lemma nodup_snoc (l : list N) x : NoDup l -> ~ In x l -> NoDup (l ++ [x]).
Proof.
  induction l as [|y l IH]; simpl; intros ND Hx.
  - constructor; [simpl; tauto|constructor].
  - inv ND. constructor.
    + rewrite in_app_iff. simpl. intros [H|[H|[]]]; subst; auto.
    + apply IH; auto.
Qed.

Lemma submit_loop_nodup qi permit script q idx q2 idx2 outs sc :
  submit_loop qi permit script q idx = Ok (q2, idx2, outs, sc) -> ids_nodup q -> ids_nodup q2.
Proof.
  apply (submit_loop_ind qi (fun _ q _ _ q2 _ => ids_nodup q -> ids_nodup q2)); auto.
  intros n rest q0 idx0 id o q3 idx3 _ Ef IH ND. apply IH. unfold ids_nodup; simpl.
  rewrite map_app. apply nodup_snoc; auto. now apply find_alloc_none_notin.
Qed.

Lemma sinv_update_queue s qi v idx : sinv s -> qinv2 v ->
  sinv (mkSt (update_queue qi (fun _ => v) (s_queues s)) idx (s_next_qid s) (s_now s)).
Proof. unfold sinv; simpl. intros. apply Forall_update_queue; auto. Qed.

Lemma queue_try_submit_sinv s qi r script s' outs sc :
  queue_try_submit s qi r script = Ok (s', outs, sc) -> sinv s -> sinv s'.
Proof.
  intros H Hs. apply queue_try_submit_spec in H.
  destruct H as [(-> & _)|(q & permit & q1 & idx1 & Eq & _ & _ & Hp & _ & _ & Hl & ->)]; [exact Hs|].
  destruct (sinv_get _ _ _ Hs Eq) as [(H1 & H2 & H3 & H4) ND].
  destruct (permit_props _ _ _ Hp) as (P1 & P2 & P3).
  apply sinv_update_queue; auto. split; [|eapply submit_loop_nodup; eauto].
  eapply submit_loop_qinv; eauto; simpl; auto; [lia|].
  intros m Hm. specialize (H2 m Hm). specialize (P2 m Hm). lia.
Qed.

Lemma try_pause_queue_le now q : queue_le q (try_pause_queue now q).
Proof.
  unfold try_pause_queue. destruct (negb (q_active q)); [apply queue_le_refl|].
  destruct (submission_status now (q_lim q)); try apply queue_le_refl;
    (apply queue_le_allocs; [unfold same_params; simpl; tauto|reflexivity|auto]).
Qed.

Lemma try_pause_all_sinv s : sinv s -> sinv (try_pause_all s).
Proof.
  unfold sinv, try_pause_all; simpl. intros H. apply Forall_map.
  eapply Forall_impl; [|exact H]. intros [k q] Hq; simpl in *.
  eapply queue_le_qinv2; [apply try_pause_queue_le|exact Hq].
Qed.

Lemma perform_submits_sinv s order resps scripts s' outs :
  perform_submits s order resps scripts = Ok (s', outs) -> sinv s -> sinv s'.
Proof.
  intros H Hs. apply perform_submits_spec in H. apply try_pause_all_sinv in Hs.
  destruct H as [_ [(_ & -> & _)|(s2 & _ & Hq & ->)]]; [exact Hs|].
  apply try_pause_all_sinv. revert Hq Hs.
  apply (submit_queues_ind (fun s _ s' => sinv s -> sinv s')); eauto using queue_try_submit_sinv.
Qed.

Lemma sinv_set_queue_le s qi q q' : sinv s -> get_queue s qi = Some q -> queue_le q q' -> sinv (set_queue s qi q').
Proof. intros Hs Eq Hle. apply sinv_set_queue; auto. eapply queue_le_qinv2; eauto using sinv_get. Qed.

Lemma refresh_queue_allocations_sinv s qi w s' outs :
  refresh_queue_allocations s qi w = Ok (s', outs) -> sinv s -> sinv s'.
Proof.
  intros H Hs. apply refresh_queue_allocations_spec in H.
  destruct H as [(-> & _)|(q & sw & q' & Eq & -> & Hl)]; [exact Hs|].
  eapply sinv_set_queue_le; eauto. pose proof (proj2 (sinv_get _ _ _ Hs Eq)) as ND.
  destruct (sw_err sw); eauto using refresh_err_loop_le, refresh_loop_le.
Qed.

Lemma periodic_loop_sinv order s wits s' outs :
  periodic_loop s order wits = Ok (s', outs) -> sinv s -> sinv s'.
Proof.
  apply (periodic_loop_ind (fun s _ s' => sinv s -> sinv s')); eauto using refresh_queue_allocations_sinv.
Qed.

Lemma worker_event_sinv s id r s' outs :
  worker_event s id r = (s', outs) -> sinv s -> sinv s'.
Proof.
  intros H Hs. apply worker_event_spec in H.
  destruct H as [(-> & _)|(qi & q & q' & _ & Eq & Hl & ->)]; [exact Hs|].
  eapply sinv_set_queue_le; eauto. eapply sync_allocation_status_le; eauto. apply (sinv_get _ _ _ Hs Eq).
Qed.

Lemma qinv2_new backlog mwpa maxw lim : lim_ok lim = true -> qinv2 (mkQ true backlog mwpa maxw [] lim).
Proof.
  intros Hl. split; [|constructor].
  unfold qinv, qcount, acount; simpl. repeat split; auto; try lia; intros; lia.
Qed.

Lemma add_queue_sinv s backlog mwpa maxw lim :
  lim_ok lim = true -> sinv s -> sinv (fst (add_queue s backlog mwpa maxw lim)).
Proof.
  unfold add_queue. intros Hl Hs. unfold sinv; simpl.
  apply Forall_app. split; auto. constructor; auto. simpl. now apply qinv2_new.
Qed.

Lemma step_sinv s o s' outs : step s o = Ok (s', outs) -> sinv s -> sinv s'.
Proof.
  apply (step_cases (fun s _ _ s' => sinv s -> sinv s')); clear;
    eauto using add_queue_sinv, perform_submits_sinv, queue_try_submit_sinv, periodic_loop_sinv, worker_event_sinv.
  - intros s o q v f Hf Eq Hs. eapply sinv_set_queue_le; eauto.
    destruct Hf as [[_ ->] | [_ ->]]; (apply queue_le_allocs; [unfold same_params; simpl; tauto|reflexivity|auto]).
  - intros s q force v idx _ _ Hs. unfold sinv in *; simpl. rewrite Forall_forall in *.
    intros kv Hin. apply filter_In in Hin. apply Hs. tauto.
Qed.

Lemma reach_sinv s g : Reach s g -> sinv s.
Proof.
  induction 1.
  - constructor.
  - eapply step_sinv; eauto.
Qed.

(** ** C17: the three bounds hold in every reachable state *)
Theorem limits_hold s g : Reach s g -> c17_state_ok s = true.
Proof.
  intros H. apply reach_sinv in H. unfold c17_state_ok. apply forallb_forall.
  intros [k q] Hin. simpl. apply qinv_iff. unfold sinv in H. rewrite Forall_forall in H.
  apply (H _ Hin).
Qed.

Lemma reach_queue s g qi q : Reach s g -> get_queue s qi = Some q -> queue_limits_ok q = true.
Proof. intros H Hq. apply qinv_iff. eapply sinv_get; eauto using reach_sinv. Qed.

Theorem backlog_holds s g qi q :
  Reach s g -> get_queue s qi = Some q -> queued_count q <= q_backlog q.
Proof.
  intros H Hq. pose proof (reach_queue _ _ _ _ H Hq) as Hl.
  unfold queue_limits_ok in Hl. rewrite !andb_true_iff in Hl. lia.
Qed.

Theorem max_workers_holds s g qi q m :
  Reach s g -> get_queue s qi = Some q -> q_maxw q = Some m -> active_worker_count q <= m.
Proof.
  intros H Hq Hm. pose proof (reach_queue _ _ _ _ H Hq) as Hl.
  unfold queue_limits_ok in Hl. rewrite !andb_true_iff, Hm in Hl. lia.
Qed.

Theorem alloc_size_holds s g qi q a :
  Reach s g -> get_queue s qi = Some q -> In a (q_allocs q) ->
  1 <= a_target a /\ a_target a <= q_mwpa q.
Proof.
  intros H Hq Ha. pose proof (reach_queue _ _ _ _ H Hq) as Hl.
  unfold queue_limits_ok in Hl. rewrite !andb_true_iff in Hl.
  destruct Hl as [[[_ _] Hs] _]. rewrite forallb_forall in Hs. specialize (Hs _ Ha).
  unfold size_ok in Hs. lia.
Qed.

(** the limiter's index is always valid (the `submission_delays[current_delay]` of
    [submission_status] cannot go out of bounds) *)
Theorem limiter_index_in_bounds s g qi q :
  Reach s g -> get_queue s qi = Some q -> l_level (q_lim q) < N.of_nat (length (l_delays (q_lim q))).
Proof.
  intros H Hq. pose proof (reach_queue _ _ _ _ H Hq) as Hl.
  unfold queue_limits_ok, lim_ok in Hl. rewrite !andb_true_iff in Hl. lia.
Qed.

Lemma has_submit_app qi l1 l2 : has_submit qi (l1 ++ l2) = has_submit qi l1 || has_submit qi l2.
Proof. unfold has_submit. apply existsb_app. Qed.

Lemma queue_try_submit_other s qi r script s' outs sc q' :
  queue_try_submit s qi r script = Ok (s', outs, sc) -> q' <> qi ->
  get_queue s' q' = get_queue s q' /\ has_submit q' outs = false.
Proof.
  intros H Hne. apply queue_try_submit_spec in H.
  destruct H as [(-> & -> & _)|(q & permit & q1 & idx1 & Eq & _ & _ & _ & _ & _ & Hl & ->)]; [auto|]. split.
  - unfold get_queue; simpl. now apply alookup_update_queue_other.
  - apply submit_loop_outs in Hl. destruct Hl as [H1 _].
    destruct (has_submit q' outs) eqn:E; auto. apply H1 in E. congruence.
Qed.

Lemma queue_try_submit_now s qi r script s' outs sc :
  queue_try_submit s qi r script = Ok (s', outs, sc) -> s_now s' = s_now s.
Proof.
  intros H. apply queue_try_submit_spec in H.
  destruct H as [(-> & _)|(q & permit & q1 & idx1 & _ & _ & _ & _ & _ & _ & _ & ->)]; reflexivity.
Qed.

Lemma queue_try_submit_allowed s qi r script s' outs sc :
  queue_try_submit s qi r script = Ok (s', outs, sc) -> has_submit qi outs = true ->
  exists q, get_queue s qi = Some q /\ q_active q = true /\ resp_is_empty r = false
            /\ submission_status (s_now s) (q_lim q) = LOk.
Proof.
  intros H Hsub. apply queue_try_submit_spec in H.
  destruct H as [(_ & -> & _)|(q & permit & q1 & idx1 & Eq & Ea & Er & _ & _ & Est & _)]; [discriminate|eauto].
Qed.

Lemma zip_lookup_in qi order : forall resps r, zip_lookup qi order resps = Some r -> In qi order.
Proof.
  induction order as [|q order IH]; simpl; intros resps r H; [discriminate|].
  destruct resps as [|r0 resps]; [discriminate|].
  destruct (q =? qi) eqn:E; [apply N.eqb_eq in E; auto|right; eauto].
Qed.

(** The walk over the queues of a tick (distinct ids) calls [queue_try_submit] for [qi] at most
    once, with the response zipped to it, on a state in which [qi]'s queue and the clock are as at
    the start; all submissions for [qi] are made by that call and nothing touches the queue afterwards. *)
Lemma submit_queues_split order : forall s resps scripts s' outs qi,
  submit_queues s order resps scripts = Ok (s', outs) -> NoDup order ->
  match zip_lookup qi order resps with
  | None => has_submit qi outs = false /\ get_queue s' qi = get_queue s qi
  | Some r => exists s1 sc s2 o1 sc',
      get_queue s1 qi = get_queue s qi /\ s_now s1 = s_now s
      /\ queue_try_submit s1 qi r sc = Ok (s2, o1, sc')
      /\ has_submit qi outs = has_submit qi o1 /\ get_queue s' qi = get_queue s2 qi
  end.
Proof.
  induction order as [|qj order IH]; simpl; intros s resps scripts s' outs qi H ND; [inv H; auto|].
  destruct resps as [|r resps]; [inv H; auto|].
  bind_inv H. destruct x as [[s1 o1] sc1]. bind_inv H. destruct x as [s2 o2]. inv H. inv ND.
  specialize (IH _ _ _ _ _ qi Hx0 H2). rewrite has_submit_app. destruct (qj =? qi) eqn:E.
  - apply N.eqb_eq in E. subst qj. destruct (zip_lookup qi order resps) eqn:Z; [apply zip_lookup_in in Z; contradiction|].
    destruct IH as [-> ->]. rewrite orb_false_r. eauto 10.
  - assert (Hne : qi <> qj) by (intros ->; rewrite N.eqb_refl in E; discriminate).
    destruct (queue_try_submit_other _ _ _ _ _ _ _ qi Hx Hne) as [Hg ->].
    rewrite <- Hg, <- (queue_try_submit_now _ _ _ _ _ _ _ Hx). exact IH.
Qed.

Lemma submit_queues_allowed order s resps scripts s' outs qi :
  submit_queues s order resps scripts = Ok (s', outs) -> NoDup order ->
  has_submit qi outs = true ->
  exists q r, zip_lookup qi order resps = Some r /\ get_queue s qi = Some q /\ q_active q = true
              /\ resp_is_empty r = false /\ submission_status (s_now s) (q_lim q) = LOk.
Proof.
  intros H ND Hsub. pose proof (submit_queues_split _ _ _ _ _ _ qi H ND) as Sp.
  destruct (zip_lookup qi order resps) as [r|]; [|destruct Sp; congruence].
  destruct Sp as (s1 & sc & s2 & o1 & sc' & <- & <- & Ht & E & _). rewrite E in Hsub.
  destruct (queue_try_submit_allowed _ _ _ _ _ _ _ Ht Hsub) as (q & ?). exists q, r. auto.
Qed.

Lemma nodupb_spec l : nodupb l = true <-> NoDup l.
Proof.
  induction l as [|x l IH]; simpl; [split; [constructor|reflexivity]|].
  rewrite andb_true_iff, negb_true_iff, IH. split.
  - intros [H1 H2]. constructor; auto. intros Hin.
    assert (existsb (N.eqb x) l = true); [|congruence].
    apply existsb_exists. exists x. split; auto. apply N.eqb_refl.
  - intros ND. inv ND. split; auto. destruct (existsb (N.eqb x) l) eqn:E; auto.
    apply existsb_exists in E. destruct E as (y & Hy & E). apply N.eqb_eq in E. subst. contradiction.
Qed.

Lemma perm_of_nodup l1 l2 : perm_of l1 l2 = true -> NoDup l1.
Proof. unfold perm_of. rewrite !andb_true_iff. intros [[_ H] _]. now apply nodupb_spec. Qed.

Lemma try_pause_queue_active now q :
  q_active (try_pause_queue now q) = true ->
  q_active q = true /\ try_pause_queue now q = q.
Proof.
  unfold try_pause_queue. destruct (q_active q) eqn:Ea; simpl; [|rewrite Ea; discriminate].
  destruct (submission_status now (q_lim q)); simpl; auto; discriminate.
Qed.

(** only [submit_loop] calls the handler's submit *)
Definition only_events (outs : list out) : Prop := Forall (fun o => is_event o = true) outs.

Lemma only_events_no_submit outs qi : only_events outs -> has_submit qi outs = false.
Proof.
  induction 1 as [|o l Ho _ IH]; simpl; auto. rewrite IH. destruct o; simpl in *; auto; discriminate.
Qed.

Lemma status_events_only outs : status_events outs -> only_events outs.
Proof. apply Forall_impl. intros [] H; simpl in *; auto; contradiction. Qed.

Lemma sync_allocation_status_status_events qi q id r q' outs :
  sync_allocation_status qi q id r = (q', outs) -> status_events outs.
Proof.
  intros H. apply sync_allocation_status_spec in H.
  destruct (find_alloc id (q_allocs q)) as [a|]; [|destruct H as [_ ->]; constructor].
  destruct H as (a' & evs & fin & Es & _ & ->).
  apply status_events_app; [apply (sync_alloc_spec _ _ _ _ _ _ Es)|destruct fin; repeat constructor].
Qed.

Lemma bump_status_events qi q id q' outs : bump qi q id = (q', outs) -> status_events outs.
Proof.
  intros H. apply bump_spec in H. destruct (find_alloc id (q_allocs q)) as [a|]; [|destruct H as [_ ->]; constructor].
  destruct H as (a' & H & _). apply (increase_status_error_counter_spec _ _ _ _ H).
Qed.

Lemma refresh_queue_allocations_status_events s qi w s' outs :
  refresh_queue_allocations s qi w = Ok (s', outs) -> status_events outs.
Proof.
  intros H. apply refresh_queue_allocations_spec in H.
  destruct H as [(_ & ->)|(q & sw & q' & _ & _ & Hl)]; [constructor|]. revert Hl. destruct (sw_err sw).
  - apply (refresh_err_loop_ind qi (fun _ o _ => status_events o));
      eauto using status_events_app, bump_status_events; constructor.
  - apply (refresh_loop_ind qi (fun _ o _ => status_events o));
      eauto using status_events_app, bump_status_events, sync_allocation_status_status_events; constructor.
Qed.

Lemma periodic_loop_status_events order s wits s' outs :
  periodic_loop s order wits = Ok (s', outs) -> status_events outs.
Proof.
  apply (periodic_loop_ind (fun _ o _ => status_events o));
    eauto using status_events_app, refresh_queue_allocations_status_events; constructor.
Qed.

Lemma worker_event_status_events s id r s' outs : worker_event s id r = (s', outs) -> status_events outs.
Proof.
  intros H. apply worker_event_spec in H.
  destruct H as [(_ & -> & _)|(qi & q & q' & _ & _ & Hs & _)]; [constructor|].
  eapply sync_allocation_status_status_events; eauto.
Qed.

Lemma status_events_no_submit outs qi : status_events outs -> has_submit qi outs = false.
Proof. intros H. apply only_events_no_submit. now apply status_events_only. Qed.

Lemma has_submit_removes qi q (l : list alloc) :
  has_submit qi (map (fun a => OutRemove q (a_id a)) l) = false.
Proof. induction l; simpl; auto. Qed.

(** ** C17: nothing is submitted for a paused queue, without demand, or while rate limited
    (failure counters at their limit, or earlier than the current back-off delay after the
    previous attempt) *)
Theorem submit_only_when_allowed s o s' outs qi :
  step s o = Ok (s', outs) -> has_submit qi outs = true -> submit_allowed s o qi = true.
Proof.
  apply (step_cases (fun s o outs _ => has_submit qi outs = true -> submit_allowed s o qi = true));
    clear - qi; try discriminate.
  - intros s order resps scripts s' outs H Hsub. apply perform_submits_spec in H.
    destruct H as [Ep [(_ & _ & ->)|(s2 & _ & Hq & _)]]; [discriminate|].
    destruct (submit_queues_allowed _ _ _ _ _ _ qi Hq (perm_of_nodup _ _ Ep) Hsub)
      as (qq & rr & Z & G & A & B & C).
    rewrite get_queue_try_pause_all in G.
    destruct (get_queue s qi) as [q0|] eqn:G0; simpl in G; [|discriminate]. inv G.
    destruct (try_pause_queue_active _ _ A) as [A0 Eq]. rewrite Eq in C.
    unfold submit_allowed. simpl. rewrite G0, Z, A0, B. simpl in C. now rewrite C.
  - intros s q r script s' outs sc H Hsub. destruct (N.eq_dec qi q) as [->|Hne].
    + destruct (queue_try_submit_allowed _ _ _ _ _ _ _ H Hsub) as (v & G & A & B & C).
      unfold submit_allowed. simpl. now rewrite G, N.eqb_refl, A, B, C.
    + destruct (queue_try_submit_other _ _ _ _ _ _ _ qi H Hne) as [_ Hn]. congruence.
  - intros s order wits s' outs H Hsub.
    rewrite (status_events_no_submit _ qi (periodic_loop_status_events _ _ _ _ _ H)) in Hsub. discriminate.
  - intros s o a r s' outs _ H Hsub. simpl in Hsub.
    rewrite (status_events_no_submit _ qi (worker_event_status_events _ _ _ _ _ H)) in Hsub. discriminate.
  - intros s q force v idx _ _ Hsub. simpl in Hsub.
    rewrite has_submit_app, has_submit_removes in Hsub. discriminate.
Qed.

Corollary silent_when_paused_or_no_demand s o s' outs qi :
  step s o = Ok (s', outs) -> has_submit qi outs = true ->
  exists q r, get_queue s qi = Some q /\ q_active q = true
              /\ demand_of o qi = Some r /\ resp_is_empty r = false.
Proof.
  intros H Hs. pose proof (submit_only_when_allowed _ _ _ _ _ H Hs) as A.
  unfold submit_allowed in A.
  destruct (get_queue s qi) as [q|]; [|discriminate].
  destruct (demand_of o qi) as [r|]; [|discriminate].
  rewrite !andb_true_iff, negb_true_iff in A. exists q, r. tauto.
Qed.

(** the attempt is at least [delay(level)] after the previous one, and the counters are below their limits *)
Corollary backoff_respected s o s' outs qi :
  step s o = Ok (s', outs) -> has_submit qi outs = true ->
  exists q, get_queue s qi = Some q /\ lim_exhausted (q_lim q) = false
            /\ match l_last (q_lim q) with
               | Some t => lim_delay (q_lim q) <= s_now s - t
               | None => True
               end.
Proof.
  intros H Hs. pose proof (submit_only_when_allowed _ _ _ _ _ H Hs) as A.
  unfold submit_allowed in A.
  destruct (get_queue s qi) as [q|]; [|discriminate].
  destruct (demand_of o qi) as [r|]; [|discriminate].
  rewrite !andb_true_iff in A. destruct A as [_ A].
  destruct (submission_status (s_now s) (q_lim q)) eqn:E; try discriminate.
  apply status_ok_iff in E. destruct E as [E1 E2]. exists q. repeat split; auto.
  unfold backoff_elapsed in E2. destruct (l_last (q_lim q)); auto. lia.
Qed.

(** * A paused queue stays paused (and therefore silent) until it is resumed *)
Theorem paused_until_resumed s o s' outs qi q :
  step s o = Ok (s', outs) -> get_queue s qi = Some q -> q_active q = false ->
  o <> OResume qi ->
  match get_queue s' qi with Some q' => q_active q' = false | None => True end.
Proof.
  intros H Hq Ha Hne. pose proof (step_qtrans _ _ _ _ _ _ H Hq) as T.
  destruct (get_queue s' qi) as [q'|]; auto.
  assert (E : is_resume_of o qi = false).
  { destruct o; simpl; auto. destruct (q0 =? qi) eqn:E; auto. apply N.eqb_eq in E. congruence. }
  rewrite E in T. destruct (q_active q') eqn:Ea'; auto.
  apply (qtrans_no_activation _ _ T) in Ea'. congruence.
Qed.

(** * After the configured number of consecutive failures a tick leaves the queue paused *)
Lemma try_pause_queue_lim now q : q_lim (try_pause_queue now q) = q_lim q.
Proof.
  unfold try_pause_queue. destruct (negb (q_active q)); auto.
  destruct (submission_status now (q_lim q)); auto.
Qed.

Lemma try_pause_queue_exhausted now q :
  lim_exhausted (q_lim q) = true -> q_active (try_pause_queue now q) = false.
Proof.
  intros He. unfold try_pause_queue. destruct (q_active q) eqn:Ea; simpl; auto.
  apply (exhausted_status now) in He. destruct He as [He|He]; rewrite He; reflexivity.
Qed.

Lemma try_pause_all_exhausted s : exhausted_paused (try_pause_all s) = true.
Proof.
  unfold exhausted_paused, try_pause_all; simpl. apply forallb_forall. intros kv Hin.
  apply in_map_iff in Hin. destruct Hin as [[k q] [<- Hin]]. simpl.
  rewrite try_pause_queue_lim. destruct (lim_exhausted (q_lim q)) eqn:He; simpl; auto.
  now rewrite try_pause_queue_exhausted.
Qed.

Theorem pause_after_fails s order resps scripts s' outs :
  step s (OTick order resps scripts) = Ok (s', outs) -> exhausted_paused s' = true.
Proof.
  simpl. intros H. apply perform_submits_spec in H.
  destruct H as [_ [(_ & -> & _)|(s2 & _ & _ & ->)]]; apply try_pause_all_exhausted.
Qed.

(** the counters count consecutive failures: a failed submission adds one, a successful one
    resets; a failed allocation adds one, a successful one resets *)
Lemma counters_count_consecutive_failures l :
  l_sfails (on_submission_fail l) = l_sfails l + 1 /\ l_sfails (on_submission_success l) = 0
  /\ l_afails (on_allocation_fail l) = l_afails l + 1 /\ l_afails (on_allocation_success l) = 0
  /\ l_afails (on_submission_fail l) = l_afails l /\ l_afails (on_submission_success l) = l_afails l
  /\ l_sfails (on_allocation_fail l) = l_sfails l /\ l_sfails (on_allocation_success l) = l_sfails l.
Proof.
  unfold on_submission_fail, on_allocation_fail, increase_delay; simpl.
  repeat split; auto;
    match goal with |- context [if ?c then _ else _] => destruct c end; reflexivity.
Qed.

Lemma has_space_of_permit q r : permit_nonempty q r = true -> has_space_for_submit q = Ok true.
Proof.
  unfold permit_nonempty. destruct (compute_submission_permit q r) as [p| |] eqn:Ep; try discriminate.
  destruct p as [|p0 p]; [discriminate|]. intros _.
  pose proof (permit_props _ _ _ Ep) as (P1 & P2 & P3).
  unfold compute_submission_permit in Ep. bind_inv Ep. apply assert_or_ok in Hx.
  unfold has_space_for_submit. rewrite queued_count_eq. simpl in P1.
  destruct (q_backlog q <=? qcount (q_allocs q)) eqn:E1; [lia|].
  destruct (q_maxw q) as [m|] eqn:Em; auto.
  rewrite Hx. simpl. rewrite active_worker_count_eq in *.
  destruct (m - acount (q_allocs q) =? 0) eqn:E0; [inv Ep|].
  f_equal. lia.
Qed.

Lemma all_no_space_false l qi q b :
  all_no_space l = Ok b -> alookup qi l = Some q -> q_active q = true ->
  has_space_for_submit q = Ok true -> b = false.
Proof.
  induction l as [|[k v] l IH]; simpl; intros H Hl Ha Hs; [discriminate|].
  destruct (k =? qi) eqn:E.
  - inv Hl. rewrite Ha, Hs in H. simpl in H. now inv H.
  - destruct (q_active v); [|eauto]. bind_inv H. destruct x; [now inv H|eauto].
Qed.

Lemma queue_try_submit_eligible s qi r script s' outs sc q :
  queue_try_submit s qi r script = Ok (s', outs, sc) ->
  get_queue s qi = Some q -> q_active q = true -> permit_nonempty q r = true ->
  submission_status (s_now s) (q_lim q) = LOk ->
  has_submit qi outs = true.
Proof.
  unfold queue_try_submit, permit_nonempty. intros H G A P St.
  destruct (compute_submission_permit q r) as [p| |] eqn:Ep; try discriminate.
  destruct p as [|p0 p]; [discriminate|].
  destruct (resp_is_empty r) eqn:Er; [apply (permit_empty_resp _ _ _ Ep) in Er; discriminate|].
  rewrite G, A in H. cbv beta match delta [negb bind] in H. rewrite Ep in H.
  cbv beta match delta [bind] in H. rewrite St in H. cbv beta match in H.
  bind_inv H. destruct x as [[[q1 idx1] outs1] sc1]. inv H.
  apply submit_loop_outs in Hx. destruct Hx as [_ Hx]. apply Hx. discriminate.
Qed.

Lemma submit_queues_eligible order s resps scripts s' outs qi q r :
  submit_queues s order resps scripts = Ok (s', outs) -> NoDup order ->
  zip_lookup qi order resps = Some r ->
  get_queue s qi = Some q -> q_active q = true -> permit_nonempty q r = true ->
  submission_status (s_now s) (q_lim q) = LOk ->
  has_submit qi outs = true.
Proof.
  intros H ND Z G A P St. pose proof (submit_queues_split _ _ _ _ _ _ qi H ND) as Sp. rewrite Z in Sp.
  destruct Sp as (s1 & sc & s2 & o1 & sc' & G1 & N1 & Ht & -> & _). rewrite <- G1 in G. rewrite <- N1 in St.
  eapply queue_try_submit_eligible; eauto.
Qed.

(** a tick at which queue [qi] is active, its failure counters are below their limits, the
    scheduler reports demand that the backlog / worker limits leave room for, and the back-off
    delay has elapsed performs a submission attempt for [qi] *)
Theorem eligible_tick_submits s order resps scripts s' outs qi q r :
  step s (OTick order resps scripts) = Ok (s', outs) ->
  get_queue s qi = Some q -> q_active q = true -> lim_exhausted (q_lim q) = false ->
  zip_lookup qi order resps = Some r -> permit_nonempty q r = true ->
  backoff_elapsed (s_now s) (q_lim q) = true ->
  has_submit qi outs = true.
Proof.
  simpl. intros H G A Ex Z P B. apply perform_submits_spec in H.
  assert (St : submission_status (s_now s) (q_lim q) = LOk) by (apply status_ok_iff; auto).
  assert (G1 : get_queue (try_pause_all s) qi = Some q).
  { rewrite get_queue_try_pause_all, G. unfold try_pause_queue. simpl. now rewrite A, St. }
  destruct H as [Ep [([Ea|Hn] & _)|(s2 & _ & Hq & _)]].
  - assert (Hin : In qi (active_qids (try_pause_all s))); [|rewrite Ea in Hin; destruct Hin].
    unfold active_qids. apply in_map_iff. exists (qi, q). split; auto.
    apply filter_In. split; [now apply alookup_in|exact A].
  - pose proof (all_no_space_false _ _ _ _ Hn G1 A (has_space_of_permit _ _ P)). discriminate.
  - eapply submit_queues_eligible; eauto using perm_of_nodup.
Qed.

Lemma resume_clears q :
  q_active (resume q) = true
  /\ l_sfails (q_lim (resume q)) = 0 /\ l_afails (q_lim (resume q)) = 0
  /\ q_allocs (resume q) = q_allocs q /\ same_params q (resume q)
  /\ l_last (q_lim (resume q)) = l_last (q_lim q) /\ l_level (q_lim (resume q)) = l_level (q_lim q)
  /\ l_delays (q_lim (resume q)) = l_delays (q_lim q)
  /\ l_maxaf (q_lim (resume q)) = l_maxaf (q_lim q) /\ l_maxsf (q_lim (resume q)) = l_maxsf (q_lim q).
Proof. unfold resume, same_params; simpl. tauto. Qed.

Lemma permit_resume q r : compute_submission_permit (resume q) r = compute_submission_permit q r.
Proof. reflexivity. Qed.

(** ** C17: resuming a paused queue - paused by the user or by the safety limits - makes it submit
    again: the next tick with demand, room and elapsed back-off attempts a submission *)
Theorem resume_submits s qi q s1 o1 order resps scripts s2 o2 r :
  get_queue s qi = Some q ->
  1 <= l_maxaf (q_lim q) -> 1 <= l_maxsf (q_lim q) ->
  step s (OResume qi) = Ok (s1, o1) ->
  step s1 (OTick order resps scripts) = Ok (s2, o2) ->
  zip_lookup qi order resps = Some r ->
  permit_nonempty q r = true ->                          (* demand, and the limits leave room *)
  backoff_elapsed (s_now s) (q_lim q) = true ->          (* back-off delay elapsed *)
  has_submit qi o2 = true.
Proof.
  intros G Ma Ms H1 H2 Z P B. simpl in H1. rewrite G in H1. inv H1.
  apply (eligible_tick_submits (set_queue s qi (resume q)) order resps scripts s2 o2 qi (resume q) r); auto.
  - eapply get_queue_set_queue_same; eauto.
  - unfold lim_exhausted, resume; simpl. lia.
Qed.

(** the same law for any number of steps between the resume and the tick, as long as the queue
    is still active and no new failure streak reached a limit: see [eligible_tick_submits]. *)

(** ** Finding F14 (before the fix): [resume] only flipped the state; the first pass of
    [try_pause_queue] of the next tick paused the queue again, nothing could ever be submitted *)
Definition f14_queue : queue :=
  mkQ false 2 1 None [] (mkLim [0] 0 (Some 0) 0 3 1 1).   (* one failed submission, max_submission_fails = 1 *)

Lemma F14_unfixed_refuted :
  exists q now r,
    q_active q = false /\ lim_exhausted (q_lim q) = true
    /\ permit_nonempty (resume_unfixed q) r = true /\ backoff_elapsed now (q_lim (resume_unfixed q)) = true
    /\ q_active (resume_unfixed q) = true
    /\ q_active (try_pause_queue now (resume_unfixed q)) = false          (* paused again by the next tick *)
    /\ q_active (try_pause_queue now (resume q)) = true.                   (* repaired code *)
Proof. exists f14_queue, 0, (2, 0, 0). vm_compute. repeat split; reflexivity. Qed.

(** every queue whose counters are at a limit is re-paused by the unfixed resume + tick, for all states *)
Lemma F14_unfixed_always_repaused now q :
  lim_exhausted (q_lim q) = true -> q_active (try_pause_queue now (resume_unfixed q)) = false.
Proof. intros H. apply try_pause_queue_exhausted. exact H. Qed.

(** * Non-vacuity *)
Definition ex_ops : list op :=
  [ OAddQueue 2 2 (Some 3) (Some ([0; 60], 1, 3));
    OTick [1] [(3, 0, 0)] [(1, [SubOk 10; SubOk 11])];        (* two allocations: 2 + 1 workers (max 3) *)
    OConnect 1 10;
    OTick [1] [(5, 0, 0)] [(1, [SubOk 12])];                  (* no room: max_worker_count reached *)
    OLost 1 10 false; OLost 2 10 false;                       (* allocation 10 finishes normally *)
    OTick [1] [(5, 0, 0)] [(1, [SubFail])];                   (* failed submission: counter = limit *)
    OResume 1; OAdvance 60;                                   (* back-off: level 1 = 60 s *)
    OTick [1] [(5, 0, 0)] [(1, [SubOk 13])] ].                (* resumed: submits again *)

Example ex_reach : exists s outs, run (init_state 1) ex_ops = Ok (s, outs)
  /\ c17_state_ok s = true /\ has_submit 1 outs = true
  /\ match get_queue s 1 with Some q => q_active q = true /\ length (q_allocs q) = 3%nat | None => False end.
Proof. eexists. eexists. split; [vm_compute; reflexivity|]. vm_compute. repeat split; reflexivity. Qed.

Lemma run_reach ops : forall s g s' outs, Reach s g -> run s ops = Ok (s', outs) -> exists g', Reach s' g'.
Proof.
  induction ops as [|o ops IH]; simpl; intros s g s' outs R H.
  - inv H. eauto.
  - bind_inv H. destruct x as [s1 o1]. bind_inv H. destruct x as [s2 o2]. inv H.
    eapply IH; [|eauto]. eapply Reach_step; eauto.
Qed.

Example ex_reachable : exists s g, Reach s g /\ s_queues s <> [] /\ c17_state_ok s = true.
Proof.
  destruct ex_reach as (s & outs & Hr & Hc & _ & Hq).
  destruct (run_reach _ _ _ _ _ (Reach_init 1) Hr) as [g R]. exists s, g. repeat split; auto.
  intros E. unfold get_queue in Hq. rewrite E in Hq. exact Hq.
Qed.
