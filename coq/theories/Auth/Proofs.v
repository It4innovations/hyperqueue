(** Proofs about the handshake model: honest runs, mismatches, and authentication against an
    active Dolev-Yao attacker. *)
From Coq Require Import String.
From HQ Require Import Base.Prelude Gen.Consts Auth.Model.

Lemma chal_eqb_eq a b : chal_eqb a b = true <-> a = b.
Proof. destruct a, b; simpl; try (split; discriminate); rewrite N.eqb_eq; split; congruence. Qed.

Lemma cipher_eqb_eq a b : cipher_eqb a b = true <-> a = b.
Proof.
  destruct a as [k r c l|g], b as [k' r' c' l'|g']; simpl; try (split; discriminate).
  - rewrite !andb_true_iff, !N.eqb_eq, chal_eqb_eq. split; [intros [[[-> ->] ->] ->]; reflexivity | intros H; injection H; auto].
  - rewrite N.eqb_eq. split; congruence.
Qed.

Lemma chal_eqb_refl c : chal_eqb c c = true.
Proof. apply chal_eqb_eq; reflexivity. Qed.

Lemma cipher_eqb_refl b : cipher_eqb b b = true.
Proof. apply cipher_eqb_eq; reflexivity. Qed.

Theorem honest_accepts A B fa fb :
  matching A B = true -> honest_exchange A B fa fb = (true, true).
Proof.
  destruct A as [pa ma ea ka], B as [pb mb eb kb]. unfold matching, honest_exchange. simpl.
  rewrite !andb_true_iff, !N.eqb_eq. intros [[[-> Hk] ->] ->].
  destruct ka as [ka|], kb as [kb|]; simpl in Hk; try discriminate.
  - apply N.eqb_eq in Hk. subst. unfold make_auth_response, finish_authentication; simpl.
    rewrite !N.eqb_refl. simpl. rewrite !N.eqb_refl. simpl. rewrite !chal_eqb_refl. reflexivity.
  - unfold make_auth_response, finish_authentication; simpl. rewrite !N.eqb_refl. reflexivity.
Qed.

Theorem mismatch_both_refuse A B fa fb :
  matching A B = false -> honest_exchange A B fa fb = (false, false).
Proof.
  destruct A as [pa ma ea ka], B as [pb mb eb kb]. unfold matching, honest_exchange. simpl.
  intros H.
  unfold make_auth_request, make_auth_response, finish_authentication; simpl.
  destruct ka as [ka|], kb as [kb|]; simpl in *;
    destruct (N.eqb pa pb) eqn:Hp; rewrite ?(N.eqb_sym pb pa), ?Hp; simpl; try reflexivity;
    destruct (N.eqb ea mb) eqn:H1; rewrite ?(N.eqb_sym mb ea), ?H1; simpl;
    destruct (N.eqb eb ma) eqn:H2; rewrite ?(N.eqb_sym ma eb), ?H2; simpl; try reflexivity;
    try discriminate.
  all: try (destruct (N.eqb ka kb) eqn:Hk; rewrite ?(N.eqb_sym kb ka), ?Hk; simpl; try reflexivity; try discriminate).
  all: try (rewrite ?Hk in H; simpl in H; discriminate).
Qed.

Lemma upd_length {A} (l : list A) i x : length (upd l i x) = length l.
Proof. revert i; induction l as [|h t IH]; intros [|i]; simpl; auto. Qed.

Lemma nth_error_upd {A} (l : list A) i j x :
  nth_error (upd l i x) j = if Nat.eqb i j then (match nth_error l j with Some _ => Some x | None => None end) else nth_error l j.
Proof.
  revert i j; induction l as [|h t IH]; intros [|i] [|j]; simpl; auto.
  destruct (Nat.eqb i j); reflexivity.
Qed.

Definition ep_wf (n : nat) (i : nat) (y : ep) : Prop :=
  let a := ep_auth y in
  a_challenge a = match a_key a with Some _ => Some (HC (N.of_nat i)) | None => None end
  /\ (N.to_nat (ep_resp_when y) <= n)%nat
  /\ (forall b, ep_resp_out y = Some (REnc b) ->
        exists q k c len,
          ep_req_in y = Some q /\ a_key a = Some k /\ b = Sealed k (a_my_role a) c len
          /\ rq_mode q = MEnc c len /\ len = CHALLENGE_LENGTH
          /\ rq_protocol q = a_protocol a /\ rq_role q = a_peer_role a
          /\ (forall m, c = HC m -> (m < ep_resp_when y)%N)).

Definition Inv (s : state) : Prop := forall i y, nth_error s i = Some y -> ep_wf (length s) i y.

Lemma inv_init : Inv [].
Proof. intros [|i] y H; discriminate. Qed.

Lemma ep_wf_mono n n' i y : (n <= n')%nat -> ep_wf n i y -> ep_wf n' i y.
Proof. unfold ep_wf; intros Hn (H1 & H2 & H3); repeat split; auto; lia. Qed.

Lemma inv_upd s i x y : Inv s -> nth_error s i = Some x -> ep_wf (length s) i y -> Inv (upd s i y).
Proof.
  intros HI Hx Hy j z Hz. rewrite upd_length. rewrite nth_error_upd in Hz.
  destruct (Nat.eqb i j) eqn:E; [|now apply HI].
  apply Nat.eqb_eq in E. subst j. rewrite Hx in Hz. now injection Hz as <-.
Qed.

Definition static (a' a : auth) : Prop :=
  a_protocol a' = a_protocol a /\ a_my_role a' = a_my_role a /\ a_peer_role a' = a_peer_role a
  /\ a_key a' = a_key a /\ a_challenge a' = a_challenge a.

Lemma make_auth_response_inv a q a' r :
  make_auth_response a q = (a', r) ->
  static a' a
  /\ forall b, r = REnc b ->
       exists k c len, a_key a = Some k /\ b = Sealed k (a_my_role a) c len /\ rq_mode q = MEnc c len
                       /\ len = CHALLENGE_LENGTH /\ rq_protocol q = a_protocol a /\ rq_role q = a_peer_role a.
Proof.
  unfold make_auth_response, static.
  destruct (N.eqb (rq_protocol q) (a_protocol a)) eqn:Hp; simpl;
    [|intros [= <- <-]; split; [repeat split | discriminate]].
  destruct (N.eqb (rq_role q) (a_peer_role a)) eqn:Hr; simpl;
    [|intros [= <- <-]; split; [repeat split | discriminate]].
  destruct (rq_mode q) as [|c len], (a_key a) as [k|] eqn:Hk;
    try (intros [= <- <-]; split; [repeat split; assumption | discriminate]).
  destruct (N.eqb len CHALLENGE_LENGTH) eqn:Hl; simpl; intros [= <- <-];
    (split; [repeat split; assumption|]); [|discriminate].
  intros b [= <-]. apply N.eqb_eq in Hp, Hr, Hl. exists k, c, len. repeat split; assumption.
Qed.

Inductive step_to (s : state) : op -> state * out -> Prop :=
| st_off o : step_to s o (s, OutDisabled)
| st_new p me peer k a q :
    make_auth_request (new_auth p me peer k) (HC (N.of_nat (length s))) = (a, q) ->
    step_to s (ONew p me peer k) (s ++ [mkEp a None None 0 None], OutReq q)
| st_resp e q x a r :
    nth_error s (N.to_nat e) = Some x -> make_auth_response (ep_auth x) q = (a, r) ->
    step_to s (OResp e q) (upd s (N.to_nat e) (mkEp a (Some q) (Some r) (N.of_nat (length s)) None), OutResp r)
| st_fin e r x ro :
    nth_error s (N.to_nat e) = Some x -> ep_resp_out x = Some ro ->
    step_to s (OFin e r)
      (upd s (N.to_nat e) (mkEp (ep_auth x) (ep_req_in x) (Some ro) (ep_resp_when x) (Some (finish_authentication (ep_auth x) r))),
       OutFin (finish_authentication (ep_auth x) r)).

Lemma step_spec s o : step_to s o (step s o).
Proof.
  destruct o as [p me peer k | e q | e r]; simpl.
  - destruct (make_auth_request _ _) as [a q] eqn:Hq. now constructor.
  - destruct (nth_error s (N.to_nat e)) as [x|] eqn:Hx; [|constructor].
    destruct (ep_resp_out x); [constructor|].
    destruct (make_auth_response (ep_auth x) q) as [a r] eqn:Hr. now apply st_resp with x.
  - destruct (nth_error s (N.to_nat e)) as [x|] eqn:Hx; [|constructor].
    destruct (ep_resp_out x) eqn:Hro; [|constructor].
    destruct (ep_result x); [constructor|]. now apply st_fin.
Qed.

Lemma inv_step bad s o :
  Inv s -> deliverable bad s o = true -> Inv (fst (step s o)).
Proof.
  intros HI Hd. destruct (step_spec s o) as [o | p me peer k a q Hq | e q x a r Hx Hr | e r x ro Hx Hro]; simpl.
  - exact HI.
  - intros i y Hy. rewrite app_length; simpl.
    destruct (Nat.lt_ge_cases i (length s)) as [Hlt|Hge].
    + rewrite nth_error_app1 in Hy by assumption. eapply ep_wf_mono; [|apply HI; eassumption]. lia.
    + rewrite nth_error_app2 in Hy by assumption.
      destruct (i - length s)%nat as [|j] eqn:Hj; simpl in Hy; [|destruct j; discriminate].
      inversion Hy; subst y. assert (i = length s) by lia. subst i.
      unfold make_auth_request, new_auth in Hq; simpl in Hq.
      destruct k as [k|]; inversion Hq; subst; unfold ep_wf; simpl; repeat split; auto; try lia;
        intros b Hb; discriminate.
  - apply (inv_upd _ _ x _ HI Hx).
    pose proof (HI _ _ Hx) as (Hc & Hw & _).
    pose proof (make_auth_response_inv _ _ _ _ Hr) as ((S1 & S2 & S3 & S4 & S5) & Henc).
    unfold ep_wf; simpl. rewrite S4, S5. repeat split; auto.
    + rewrite Nat2N.id. lia.
    + intros b [= ->].
      destruct (Henc b eq_refl) as (k & c & len & K1 & K2 & K3 & K4 & K5 & K6).
      exists q, k, c, len. rewrite S1, S2, S3. repeat split; auto.
      intros m Hm. subst c. simpl in Hd. rewrite K3 in Hd. simpl in Hd.
      apply N.ltb_lt in Hd. exact Hd.
  - apply (inv_upd _ _ x _ HI Hx).
    pose proof (HI _ _ Hx) as (Hc & Hw & Hb). unfold ep_wf; simpl. repeat split; auto.
    rewrite <- Hro. exact Hb.
Qed.

Lemma inv_run bad ops s :
  Inv s -> all_deliverable bad s ops = true -> Inv (fold_left (fun s o => fst (step s o)) ops s).
Proof.
  revert s; induction ops as [|o t IH]; simpl; intros s HI Hd; [exact HI|].
  apply andb_true_iff in Hd; destruct Hd as [H1 H2].
  apply IH; [eapply inv_step; eassumption | exact H2].
Qed.

Lemma existsb_nth {A} (f : A -> bool) l :
  existsb f l = true -> exists i y, nth_error l i = Some y /\ f y = true.
Proof.
  intros H. apply existsb_exists in H. destruct H as (y & Hin & Hf).
  apply In_nth_error in Hin. destruct Hin as [i Hi]. eauto.
Qed.

(** * Accept implies authentic (any Dolev-Yao attacker) *)

Lemma finish_keyed_accept a k r :
  a_key a = Some k -> finish_authentication a r = true ->
  exists mine, r = REnc (Sealed k (a_peer_role a) mine CHALLENGE_LENGTH) /\ a_challenge a = Some mine.
Proof.
  unfold finish_authentication. intros Hk. rewrite Hk.
  destruct (a_error a); [discriminate|].
  destruct r as [|body|]; try discriminate.
  destruct body as [k' r c len|g]; simpl; [|discriminate].
  destruct (N.eqb k k') eqn:Hkk; [|discriminate]. apply N.eqb_eq in Hkk; subst k'.
  destruct (a_challenge a) as [mine|]; [|discriminate].
  rewrite !andb_true_iff, !N.eqb_eq, chal_eqb_eq. intros [[-> ->] ->]. eauto.
Qed.

Theorem accept_implies_authentic bad ops e r s' :
  all_deliverable bad [] ops = true ->
  let s := run ops in
  deliverable bad s (OFin e r) = true ->
  step s (OFin e r) = (s', OutFin true) ->
  exists x, nth_error s (N.to_nat e) = Some x /\ authentic bad s e x r = true.
Proof.
  intros Hops s Hd Hstep.
  assert (HI : Inv s) by (apply (inv_run bad); [apply inv_init | exact Hops]).
  simpl in Hstep.
  destruct (nth_error s (N.to_nat e)) as [x|] eqn:Hx; [|inversion Hstep].
  exists x; split; [reflexivity|].
  destruct (ep_resp_out x) eqn:Hro; [|inversion Hstep].
  destruct (ep_result x) eqn:Hres; [inversion Hstep|].
  assert (Hacc : finish_authentication (ep_auth x) r = true) by congruence. clear Hstep.
  unfold authentic. destruct (a_key (ep_auth x)) as [k|] eqn:Hk.
  - destruct (finish_keyed_accept _ _ _ Hk Hacc) as (mine & -> & Hmine).
    simpl in Hd. apply orb_true_iff in Hd. apply orb_true_iff. destruct Hd as [Hb|Hem]; [left; exact Hb|right].
    unfold emitted in Hem. apply existsb_exists in Hem. destruct Hem as (y & Hin & Hy).
    apply existsb_exists. exists y; split; [exact Hin|].
    destruct (In_nth_error _ _ Hin) as [j Hj].
    pose proof (HI _ _ Hj) as (Yc & Yw & Yb).
    destruct (ep_resp_out y) as [[|b'|]|] eqn:Yro; try discriminate.
    apply cipher_eqb_eq in Hy. subst b'.
    destruct (Yb _ eq_refl) as (q & k' & c' & len' & Q1 & Q2 & Q3 & Q4 & Q5 & Q6 & Q7 & Q8).
    injection Q3 as <- Hrole <- <-.
    pose proof (HI _ _ Hx) as (Xc & _ & _). rewrite Hk in Xc. rewrite Xc in Hmine. inversion Hmine; subst mine.
    unfold vouches. rewrite Yro, Q1, Xc, Q2, Q4.
    rewrite cipher_eqb_refl, N.eqb_refl. rewrite <- Hrole, N.eqb_refl. rewrite chal_eqb_refl. rewrite N.eqb_refl. simpl.
    apply N.ltb_lt. specialize (Q8 _ eq_refl). rewrite N2Nat.id in Q8. exact Q8.
  - unfold finish_authentication in Hacc. rewrite Hk in Hacc.
    destruct (a_error (ep_auth x)); [discriminate|].
    destruct r; try discriminate. reflexivity.
Qed.

Lemma vouches_inv e x k r y :
  vouches e x k r y = true ->
  exists b q mine,
    r = REnc b /\ ep_resp_out y = Some (REnc b) /\ ep_req_in y = Some q /\ a_challenge (ep_auth x) = Some mine
    /\ a_key (ep_auth y) = Some k /\ a_my_role (ep_auth y) = a_peer_role (ep_auth x)
    /\ rq_mode q = MEnc mine CHALLENGE_LENGTH /\ (e < ep_resp_when y)%N.
Proof.
  unfold vouches.
  destruct (ep_resp_out y) as [r'|]; [|discriminate]. destruct (ep_req_in y) as [q|]; [|discriminate].
  destruct (a_challenge (ep_auth x)) as [mine|]; [|discriminate].
  destruct r as [|b|], r' as [|b'|]; try discriminate.
  rewrite !andb_true_iff, cipher_eqb_eq, N.eqb_eq, N.ltb_lt. intros [[[[-> Hk] Hr] Hm] Hlt].
  destruct (a_key (ep_auth y)) as [k'|]; [apply N.eqb_eq in Hk; subst k' | discriminate].
  destruct (rq_mode q) as [|c l] eqn:Eq; [discriminate|].
  rewrite andb_true_iff, chal_eqb_eq, N.eqb_eq in Hm. destruct Hm as [-> ->].
  exists b', q, mine. repeat split; assumption.
Qed.

(** The voucher is a different endpoint whenever the two roles differ: a reflected message is
    never accepted. *)
Theorem voucher_is_not_self e x k r y s j :
  Inv s -> nth_error s (N.to_nat e) = Some x -> nth_error s j = Some y ->
  a_my_role (ep_auth x) <> a_peer_role (ep_auth x) ->
  vouches e x k r y = true -> j <> N.to_nat e.
Proof.
  intros HI Hx Hy Hne Hv Heq. subst j. rewrite Hx in Hy. injection Hy as <-.
  destruct (vouches_inv _ _ _ _ _ Hv) as (b & q & mine & _ & _ & _ & _ & _ & Hr & _). contradiction.
Qed.

(** * Substitution-only attacker: whole messages may be replayed, reflected or swapped between
    sessions, but not altered.  Then the protocol number and the voucher's expectation about its
    peer's role are bound as well. *)

Definition request_emitted (s : state) (q : request) : bool :=
  existsb (fun x =>
             let a := ep_auth x in
             N.eqb (rq_protocol q) (a_protocol a) && N.eqb (rq_role q) (a_my_role a)
             && match rq_mode q, a_key a, a_challenge a with
                | MNoAuth, None, _ => true
                | MEnc c len, Some _, Some mine => chal_eqb c mine && N.eqb len CHALLENGE_LENGTH
                | _, _, _ => false
                end) s.

Definition verbatim (s : state) (o : op) : bool :=
  match o with
  | ONew _ _ _ _ => true
  | OResp _ q => request_emitted s q
  | OFin _ (REnc b) => emitted s b
  | OFin _ _ => true
  end.

Fixpoint all_verbatim (s : state) (ops : list op) : bool :=
  match ops with
  | [] => true
  | o :: t => verbatim s o && all_verbatim (fst (step s o)) t
  end.

Definition ep_wf2 (s : state) (y : ep) : Prop :=
  forall q, ep_req_in y = Some q -> request_emitted s q = true.

Definition Inv2 (s : state) : Prop := forall y, In y s -> ep_wf2 s y.

Lemma nth_error_upd_static s e i x z y :
  nth_error s i = Some x -> nth_error s e = Some z -> static (ep_auth y) (ep_auth z) ->
  exists x', nth_error (upd s e y) i = Some x' /\ static (ep_auth x') (ep_auth x).
Proof.
  intros Hx Hz Hy. rewrite nth_error_upd. destruct (Nat.eqb e i) eqn:E.
  - apply Nat.eqb_eq in E. subst i. rewrite Hx. rewrite Hz in Hx. injection Hx as <-. eauto.
  - exists x. split; [exact Hx | repeat split].
Qed.

Lemma step_static s o i x :
  nth_error s i = Some x ->
  exists x', nth_error (fst (step s o)) i = Some x' /\ static (ep_auth x') (ep_auth x).
Proof.
  intros Hx.
  assert (Hsame : exists x', nth_error s i = Some x' /\ static (ep_auth x') (ep_auth x))
    by (exists x; split; [exact Hx | repeat split]).
  destruct (step_spec s o) as [o | p me peer k a q _ | e q z a r Hz Hr | e r z ro Hz _]; simpl.
  - exact Hsame.
  - rewrite nth_error_app1; [exact Hsame|]. apply nth_error_Some. congruence.
  - apply (nth_error_upd_static _ _ _ x z _ Hx Hz). exact (proj1 (make_auth_response_inv _ _ _ _ Hr)).
  - apply (nth_error_upd_static _ _ _ x z _ Hx Hz). repeat split.
Qed.

Lemma request_emitted_step s o q :
  request_emitted s q = true -> request_emitted (fst (step s o)) q = true.
Proof.
  unfold request_emitted. intros H. destruct (existsb_nth _ _ H) as (i & x & Hi & Hx).
  destruct (step_static s o i x Hi) as (x' & Hx' & S1 & S2 & S3 & S4 & S5).
  apply existsb_exists. exists x'. split; [eapply nth_error_In; eassumption|].
  rewrite S1, S2, S4, S5. exact Hx.
Qed.

Lemma in_upd {A} (l : list A) i x y : In y (upd l i x) -> y = x \/ In y l.
Proof.
  revert i; induction l as [|h t IH]; intros [|i]; simpl; auto.
  - intros [H|H]; auto.
  - intros [H|H]; auto. destruct (IH _ H); auto.
Qed.

(** A request that an endpoint of the new state has answered was answered in the old state already, where
    it was emitted, or is the one delivered now, which is emitted since delivery is verbatim. *)
Lemma inv2_step s o : Inv2 s -> verbatim s o = true -> Inv2 (fst (step s o)).
Proof.
  intros HI Hv y Hy q Hq. apply request_emitted_step.
  revert Hv Hy. destruct (step_spec s o) as [o | p me peer k a q0 _ | e q0 z a r _ _ | e r z ro Hz _]; simpl; intros Hv Hy.
  - exact (HI y Hy q Hq).
  - apply in_app_or in Hy. destruct Hy as [Hy|[<-|[]]]; [exact (HI y Hy q Hq) | discriminate].
  - apply in_upd in Hy. destruct Hy as [->|Hy]; [|exact (HI y Hy q Hq)].
    injection Hq as <-. exact Hv.
  - apply in_upd in Hy. destruct Hy as [->|Hy]; [|exact (HI y Hy q Hq)].
    exact (HI z (nth_error_In _ _ Hz) q Hq).
Qed.

Lemma inv2_run ops s :
  Inv2 s -> all_verbatim s ops = true -> Inv2 (fold_left (fun s o => fst (step s o)) ops s).
Proof.
  revert s; induction ops as [|o t IH]; simpl; intros s HI Hd; [exact HI|].
  apply andb_true_iff in Hd; destruct Hd as [H1 H2].
  apply IH; [apply inv2_step; assumption | exact H2].
Qed.

Lemma request_emitted_enc s q c len :
  Inv s -> request_emitted s q = true -> rq_mode q = MEnc c len ->
  exists i z, nth_error s i = Some z /\ c = HC (N.of_nat i)
              /\ rq_protocol q = a_protocol (ep_auth z) /\ rq_role q = a_my_role (ep_auth z).
Proof.
  intros HI H Hm. destruct (existsb_nth _ _ H) as (i & z & Hi & Hz).
  rewrite Hm, !andb_true_iff, !N.eqb_eq in Hz. destruct Hz as [[Hp Hr] Hc].
  pose proof (HI _ _ Hi) as (Zc & _ & _).
  destruct (a_key (ep_auth z)); [|discriminate]. rewrite Zc in Hc.
  rewrite andb_true_iff, chal_eqb_eq in Hc. destruct Hc as [-> _]. eauto 6.
Qed.

Lemma verbatim_deliverable s o : Inv s -> verbatim s o = true -> deliverable (fun _ => false) s o = true.
Proof.
  intros HI. destruct o as [| e q | e r]; simpl; auto.
  - intros H. destruct (rq_mode q) as [|c len] eqn:Hm; auto.
    destruct (request_emitted_enc s q c len HI H Hm) as (i & z & Hi & -> & _). simpl. apply N.ltb_lt.
    assert (i < length s)%nat by (apply nth_error_Some; congruence). lia.
  - destruct r as [|[k r c l|g]|]; auto.
Qed.

Lemma all_verbatim_deliverable ops s :
  Inv s -> all_verbatim s ops = true -> all_deliverable (fun _ => false) s ops = true.
Proof.
  revert s; induction ops as [|o t IH]; simpl; intros s HI H; auto.
  apply andb_true_iff in H; destruct H as [H1 H2].
  pose proof (verbatim_deliverable _ _ HI H1) as Hd. rewrite Hd. simpl.
  apply IH; [eapply inv_step; eassumption | exact H2].
Qed.

Theorem accept_implies_authentic_full ops e r s' :
  all_verbatim [] ops = true ->
  let s := run ops in
  verbatim s (OFin e r) = true ->
  step s (OFin e r) = (s', OutFin true) ->
  exists x, nth_error s (N.to_nat e) = Some x /\ authentic_full (fun _ => false) s e x r = true.
Proof.
  intros Hops s Hv Hstep.
  assert (Hdel : all_deliverable (fun _ => false) [] ops = true)
    by (apply all_verbatim_deliverable; [apply inv_init | exact Hops]).
  assert (HI : Inv s) by (apply (inv_run (fun _ => false)); [apply inv_init | exact Hdel]).
  assert (HI2 : Inv2 s) by (apply inv2_run; [intros y [] | exact Hops]).
  destruct (accept_implies_authentic (fun _ => false) ops e r s' Hdel (verbatim_deliverable _ _ HI Hv) Hstep)
    as (x & Hx & Ha).
  exists x; split; [exact Hx|].
  unfold authentic in Ha. unfold authentic_full.
  destruct (a_key (ep_auth x)) as [k|] eqn:Hk; [|exact Ha].
  simpl in *. apply existsb_exists in Ha. destruct Ha as (y & Hin & Hy).
  apply existsb_exists. exists y; split; [exact Hin|].
  unfold vouches_full. rewrite Hy. simpl.
  (* y answered a request q that carries x's challenge; q was emitted verbatim by some z;
     only x owns that challenge, so z = x and q's protocol / role are x's. *)
  destruct (vouches_inv _ _ _ _ _ Hy) as (b & q & mine & -> & Yro & Yq & Xm & _ & _ & Hm & _).
  destruct (request_emitted_enc _ q _ _ HI (HI2 y Hin q Yq) Hm) as (iz & z & Hiz & Hc & Hp & Hr).
  pose proof (HI _ _ Hx) as (Xc & _ & _). rewrite Hk in Xc. rewrite Xc in Xm. injection Xm as <-.
  injection Hc as Hidx. assert (iz = N.to_nat e) by lia. subst iz.
  pose proof (eq_trans (eq_sym Hiz) Hx) as Ezx. injection Ezx as ->.
  destruct (In_nth_error _ _ Hin) as [j Hj].
  pose proof (HI _ _ Hj) as (_ & _ & Yb).
  destruct (Yb _ Yro) as (q' & k' & c' & len' & Q1 & Q2 & Q3 & Q4 & Q5 & Q6 & Q7 & Q8).
  rewrite Yq in Q1. injection Q1 as <-.
  rewrite <- Q6, <- Q7, Hp, Hr, !N.eqb_refl. reflexivity.
Qed.

(** * The protocol number is not cryptographically bound (finding F19).

    Two endpoints with different protocol numbers but the same key and complementary roles both
    accept when the attacker rewrites the plaintext protocol field of the two requests. *)
Local Open Scope N_scope.
Definition f19_ops : list op :=
  [ ONew 1 10 20 (Some 7);                       (* endpoint 0: protocol 1, role 10 -> 20 *)
    ONew 2 20 10 (Some 7);                       (* endpoint 1: protocol 2, role 20 -> 10 *)
    OResp 0 (mkReq 1 20 (MEnc (HC 1) CHALLENGE_LENGTH));       (* endpoint 1's request with protocol rewritten 2 -> 1 *)
    OResp 1 (mkReq 2 10 (MEnc (HC 0) CHALLENGE_LENGTH));       (* endpoint 0's request with protocol rewritten 1 -> 2 *)
    OFin 0 (REnc (Sealed 7 20 (HC 0) CHALLENGE_LENGTH));
    OFin 1 (REnc (Sealed 7 10 (HC 1) CHALLENGE_LENGTH)) ].

Theorem protocol_unbound_refuted :
  exists ops, all_deliverable (fun _ => false) [] ops = true
              /\ (exists x y, run ops = [x; y]
                              /\ ep_result x = Some true /\ ep_result y = Some true
                              /\ a_protocol (ep_auth x) <> a_protocol (ep_auth y)).
Proof.
  exists f19_ops. split; [vm_compute; reflexivity|].
  eexists; eexists. split; [vm_compute; reflexivity|]. simpl. repeat split; discriminate.
Qed.

(** Non-vacuity: an attacked run in which an endpoint accepts and a voucher exists. *)
Example attacked_run_accepts :
  let ops := [ ONew 0 10 20 (Some 7); ONew 0 20 10 (Some 7);
               OResp 0 (mkReq 0 20 (MEnc (HC 1) CHALLENGE_LENGTH)); OResp 1 (mkReq 0 10 (MEnc (HC 0) CHALLENGE_LENGTH)) ] in
  all_verbatim [] ops = true
  /\ verbatim (run ops) (OFin 0 (REnc (Sealed 7 20 (HC 0) CHALLENGE_LENGTH))) = true
  /\ snd (step (run ops) (OFin 0 (REnc (Sealed 7 20 (HC 0) CHALLENGE_LENGTH)))) = OutFin true.
Proof. vm_compute. repeat split. Qed.

(** * The four real call sites of [do_authentication] (role strings read from the source by the
    constants translator): each site's role differs from its peer role, and the two ends of each
    connection kind are complementary - the hypotheses [me <> peer] / [matching] are satisfiable
    exactly there. *)
Definition site_ok (me peer me' peer' : string) : bool :=
  negb (String.eqb me peer) && String.eqb me peer' && String.eqb peer me'.

Theorem call_sites_complementary :
  site_ok AUTH_SERVER_SITE_ROLES AUTH_SERVER_SITE_PEER AUTH_WORKER_SITE_ROLES AUTH_WORKER_SITE_PEER = true
  /\ site_ok AUTH_HQ_SERVER_SITE_ROLES AUTH_HQ_SERVER_SITE_PEER AUTH_HQ_CLIENT_SITE_ROLES AUTH_HQ_CLIENT_SITE_PEER = true.
Proof. split; vm_compute; reflexivity. Qed.
