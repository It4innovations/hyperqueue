(** C12: pruning commutes with restoring.  A simulation between the restorer fold over a journal
    and over the pruned journal: the pruned run is the projection of the full run onto the live
    jobs ([PR]).  It holds for ANY journal and ANY live sets, provided every failure-WorkerLost
    record is kept ([keeps_loss]); without that hypothesis crash counters are lost (known finding
    F8-prune-crash-counter, witness below). *)
From HQ Require Import Base.Prelude Journal.Event Journal.Maps Journal.Restore Journal.Prune Journal.IdProofs Journal.Gen Journal.RestoreProofs.
Require Import ZifyBool ZifyN.
Open Scope N_scope.
Arguments N.add : simpl never.
Arguments N.max : simpl never.

Section Proj.
  Variable L : list N.
  Definition keep {V} (kv : N * V) : bool := memN (fst kv) L.
  Definition proj {V} (m : map V) : map V := filter keep m.

  Lemma lookup_proj {V} k (m : map V) : lookup k (proj m) = if memN k L then lookup k m else None.
  Proof.
    unfold proj, keep. induction m as [|[k' v] m IH]; simpl; [now destruct (memN k L)|].
    destruct (memN k' L) eqn:E; simpl.
    - destruct (N.eqb k k') eqn:E2; [apply N.eqb_eq in E2; subst; now rewrite E | exact IH].
    - destruct (N.eqb k k') eqn:E2; [apply N.eqb_eq in E2; subst; rewrite E in *; exact IH | exact IH].
  Qed.

  Lemma proj_insert {V} k (v : V) m : proj (insert k v m) = if memN k L then insert k v (proj m) else proj m.
  Proof.
    unfold proj, keep. induction m as [|[k' v'] m IH]; simpl.
    - destruct (memN k L); reflexivity.
    - destruct (N.eqb k k') eqn:E; simpl.
      + apply N.eqb_eq in E; subst k'. destruct (memN k L) eqn:E2; simpl; [now rewrite N.eqb_refl | reflexivity].
      + rewrite IH. destruct (memN k' L) eqn:E3; destruct (memN k L) eqn:E2; simpl; try rewrite E; reflexivity.
  Qed.

  Lemma proj_remove {V} k (m : map V) : proj (remove k m) = if memN k L then remove k (proj m) else proj m.
  Proof.
    unfold proj, keep. induction m as [|[k' v'] m IH]; simpl.
    - destruct (memN k L); reflexivity.
    - destruct (N.eqb k k') eqn:E; simpl.
      + apply N.eqb_eq in E; subst k'. rewrite IH. destruct (memN k L) eqn:E2; simpl; [now rewrite N.eqb_refl | reflexivity].
      + rewrite IH. destruct (memN k' L) eqn:E3; destruct (memN k L) eqn:E2; simpl; try rewrite E; reflexivity.
  Qed.

  Lemma proj_map {V} (f : V -> V) (m : map V) :
    proj (List.map (fun kv => (fst kv, f (snd kv))) m) = List.map (fun kv => (fst kv, f (snd kv))) (proj m).
  Proof.
    unfold proj, keep. induction m as [|[k v] m IH]; simpl; [reflexivity|].
    destruct (memN k L); simpl; now rewrite IH.
  Qed.
End Proj.

Definition PR (L : list N) (s p : RS) : Prop :=
  rs_jobs p = proj L (rs_jobs s) /\ rs_queues p = rs_queues s /\ rs_a2q p = rs_a2q s
  /\ rs_uid p = rs_uid s /\ rs_max_queue p = rs_max_queue s
  /\ rs_max_job p <= rs_max_job s /\ rs_max_worker p <= rs_max_worker s.

Definition keeps_loss (lw : list N) (e : Event) : Prop :=
  match e with EWorkerLost w r => is_failure r = true -> memN w lw = true | _ => True end.

Lemma PR_lookup L s p j : PR L s p -> lookup j (rs_jobs p) = if memN j L then lookup j (rs_jobs s) else None.
Proof. intros (A & _). rewrite A. apply lookup_proj. Qed.

Lemma run_jop_PR L s p j o :
  PR L s p -> if memN j L then PR L (run_jop j o s) (run_jop j o p) else PR L (run_jop j o s) p.
Proof.
  intros (A & B & C & D & E & F & G).
  destruct (memN j L) eqn:Hj, o; unfold PR, run_jop, upd_job, add_job, set_jobs; simpl;
    rewrite ?proj_insert, ?proj_remove, ?Hj, ?A; repeat split; try assumption; lia.
Qed.

Lemma term_one_PR L term s p id :
  PR L s p ->
  if memN (fst id) L then PR L (term_one term s id) (term_one term p id)
  else PR L (term_one term s id) p.
Proof.
  intros HP. destruct id as [j t]. cbn [fst]. generalize (fun o => run_jop_PR L s p j o HP).
  destruct (memN j L) eqn:Hj; intros H.
  - destruct (term_one_jop term s p j t) as (o & -> & ->); [now rewrite (PR_lookup L s p j HP), Hj | apply H].
  - destruct (term_one_jop term s s j t eq_refl) as (o & -> & _). apply H.
Qed.

Lemma term_fold_PR L term ids : forall s p,
  PR L s p ->
  PR L (fold_left (term_one term) ids s)
       (fold_left (term_one term) (filter (fun id => memN (fst id) L) ids) p).
Proof.
  induction ids as [|id ids IH]; intros s p HP; simpl; [assumption|].
  pose proof (term_one_PR L term s p id HP) as H.
  destruct (memN (fst id) L); simpl; apply IH; exact H.
Qed.

Lemma update_max_PR L s p e e' :
  PR L s p -> ev_queue_ids e' = ev_queue_ids e ->
  (forall x, In x (ev_job_ids e') -> In x (ev_job_ids e)) ->
  (forall x, In x (ev_worker_ids e') -> In x (ev_worker_ids e)) ->
  PR L (update_max_ids s e) (update_max_ids p e').
Proof.
  intros (A & B & C & D & E & F & G) Hq Hj Hw. unfold PR, update_max_ids; simpl.
  repeat (split; [assumption|]). apply list_max_incl in Hj, Hw. rewrite Hq, E. repeat split; lia.
Qed.

Lemma PR_set_jobs_map L s p (f : RJob -> RJob) :
  PR L s p ->
  PR L (set_jobs s (List.map (fun kv => (fst kv, f (snd kv))) (rs_jobs s)))
       (set_jobs p (List.map (fun kv => (fst kv, f (snd kv))) (rs_jobs p))).
Proof.
  intros (A & B). unfold PR, set_jobs; simpl. split; [|exact B]. now rewrite proj_map, A.
Qed.

Lemma update_max_PR_dropped L s p e :
  PR L s p -> ev_queue_ids e = [] -> PR L (update_max_ids s e) p.
Proof.
  intros (A & B & C & D & E & F & G) Hq. unfold PR, update_max_ids; simpl. rewrite Hq. simpl.
  repeat (split; [assumption|]). repeat split; lia.
Qed.

Lemma job_step_PR L s p e j s' :
  PR L s p -> rstep s e = Ok s' -> job_key e = Some j ->
  if memN j L then exists p', rstep p e = Ok p' /\ PR L s' p' else PR L s' p.
Proof.
  unfold rstep. intros HP Hs Hk. destruct (memN j L) eqn:Hj.
  - apply (update_max_PR L s p e e) in HP; auto.
    destruct (arm_jop (update_max_ids s e) (update_max_ids p e) e j s' Hk) as (o & -> & Hp);
      [now rewrite (PR_lookup L _ _ j HP), Hj | exact Hs|].
    eexists. split; [exact Hp|]. generalize (run_jop_PR L _ _ j o HP). now rewrite Hj.
  - apply (update_max_PR_dropped L s p e) in HP; [|destruct e; try discriminate; reflexivity].
    destruct (arm_jop _ _ e j s' Hk eq_refl Hs) as (o & -> & _).
    generalize (run_jop_PR L _ _ j o HP). now rewrite Hj.
Qed.

Lemma kept_step L s p e s' :
  PR L s p -> rstep s e = Ok s' ->
  match e with ETasksCanceled _ | ETasksAborted _ => False | _ => job_key e = None end ->
  exists p', rstep p e = Ok p' /\ PR L s' p'.
Proof.
  (* the high-water marks first; from then on [s], [p] are the states after [update_max_ids] *)
  unfold rstep. intros HP. apply (update_max_PR L s p e e) in HP; auto.
  revert HP. generalize (update_max_ids s e) (update_max_ids p e). clear s p. intros s p HP Hs He.
  destruct e; simpl in *; try discriminate; try contradiction.
  (* QueueRemoved ... ServerStop do not touch the jobs, and act alike on the fields that [PR] equates *)
  5-10: inversion Hs; subst; eexists; (split; [reflexivity|]); try assumption;
         destruct HP as (A & B & C & D & E & F & G); unfold PR; simpl; rewrite ?B, ?C; repeat split; assumption.
  - (* WorkerConnected: only [rs_q2w] moves, which [PR] does not mention *)
    inversion Hs; subst. eexists. split; [reflexivity|]. destruct HP as (A & B & C & D & E & F & G).
    unfold PR; simpl. repeat split; assumption.
  - destruct (is_failure r); inversion Hs; subst.
    + eexists. split; [reflexivity|]. now apply PR_set_jobs_map.
    + eexists. split; [reflexivity | assumption].
  - inversion Hs; subst. eauto.
  - destruct HP as (A & B & C & D & E & F & G). rewrite B.
    destruct (mem q (rs_queues s)); [discriminate|]. inversion Hs; subst.
    eexists. split; [reflexivity|]. unfold PR; simpl. repeat split; assumption.
Qed.

Lemma dropped_step L s p e s' :
  PR L s p -> rstep s e = Ok s' ->
  match e with
  | EWorkerConnected _ _ | EWorkerOverview _ => True
  | EWorkerLost _ r => is_failure r = false
  | _ => False
  end ->
  PR L s' p.
Proof.
  unfold rstep. intros HP Hs He.
  apply (update_max_PR_dropped L s p e) in HP; [|destruct e; try reflexivity; contradiction].
  revert HP Hs. generalize (update_max_ids s e). clear s. intros s HP Hs.
  destruct e; simpl in *; try contradiction.
  - inversion Hs; subst. destruct HP as (A & B & C & D & E & F & G). unfold PR; simpl. repeat split; assumption.
  - rewrite He in Hs. inversion Hs; subst. assumption.
  - inversion Hs; subst. assumption.
Qed.

Lemma batch_PR L term (mk : list (N * N) -> Event) s p ids s' :
  PR L s p -> rstep s (mk ids) = Ok s' ->
  (forall l, ev_job_ids (mk l) = List.map fst l /\ ev_worker_ids (mk l) = [] /\ ev_queue_ids (mk l) = []) ->
  (forall s l, rstep_arm s (mk l) = Ok (fold_left (term_one term) l s)) ->
  match filter (fun id => memN (fst id) L) ids with
  | [] => PR L s' p
  | ids' => exists p', rstep p (mk ids') = Ok p' /\ PR L s' p'
  end.
Proof.
  unfold rstep. intros HP Hs Hids Harm. rewrite Harm in Hs. injection Hs as <-.
  pose proof (term_fold_PR L term ids (update_max_ids s (mk ids))) as F.
  destruct (filter (fun id => memN (fst id) L) ids) as [|i0 l0] eqn:Ef.
  - exact (F p (update_max_PR_dropped L s p _ HP (proj2 (proj2 (Hids ids))))).
  - rewrite Harm. eexists. split; [reflexivity|]. rewrite <- Ef. apply term_fold_PR.
    destruct (Hids ids) as (Ej & Ew & Eq), (Hids (filter (fun id => memN (fst id) L) ids)) as (Ej' & Ew' & Eq').
    apply update_max_PR; [assumption | congruence | rewrite Ej, Ej' | rewrite Ew'; contradiction].
    intros x Hx. apply in_map_iff in Hx. destruct Hx as [id [<- Hin]]. apply filter_In in Hin. apply in_map. tauto.
Qed.

Lemma step_PR lj lw s p e s' :
  PR lj s p -> keeps_loss lw e -> rstep s e = Ok s' ->
  match prune_event lj lw e with
  | Some e' => exists p', rstep p e' = Ok p' /\ PR lj s' p'
  | None => PR lj s' p
  end.
Proof.
  intros HP Hk Hs.
  destruct e; simpl prune_event; simpl in Hk.
  (* queue and server records are always kept *)
  14-20: eapply kept_step; [exact HP | exact Hs | reflexivity].
  1-8: pose proof (job_step_PR lj s p _ j s' HP Hs eq_refl) as F; destruct (memN j lj); exact F.
  1-2: pose proof (batch_PR lj _ _ s p ids s' HP Hs (fun l => conj eq_refl (conj eq_refl eq_refl)) (fun s l => eq_refl)) as F;
       destruct (filter (fun id => memN (fst id) lj) ids); exact F.
  - destruct (memN w lw).
    + eapply kept_step; [exact HP | exact Hs | reflexivity].
    + eapply dropped_step; [exact HP | exact Hs | exact I].
  - destruct (memN w lw) eqn:E.
    + eapply kept_step; [exact HP | exact Hs | reflexivity].
    + eapply dropped_step; [exact HP | exact Hs |].
      simpl. destruct (is_failure r); [specialize (Hk eq_refl); discriminate | reflexivity].
  - destruct (memN w lw).
    + eapply kept_step; [exact HP | exact Hs | reflexivity].
    + eapply dropped_step; [exact HP | exact Hs | exact I].
Qed.

Lemma load_PR lj lw evs : forall s p s',
  PR lj s p -> Forall (keeps_loss lw) evs -> load s evs = Ok s' ->
  exists p', load p (prune lj lw evs) = Ok p' /\ PR lj s' p'.
Proof.
  induction evs as [|e evs IH]; intros s p s' HP Hk Hs; simpl in *.
  - inversion Hs; subst. eauto.
  - inversion Hk as [|? ? Hk1 Hk2]; subst.
    destruct (rstep s e) as [s1| |] eqn:E; try discriminate.
    pose proof (step_PR lj lw s p e s1 HP Hk1 E) as H.
    destruct (prune_event lj lw e) as [e'|]; simpl.
    + destruct H as (p1 & Hp1 & HP1). rewrite Hp1. eapply IH; eassumption.
    + eapply IH; eassumption.
Qed.

Lemma batches_of_job jid rt subs : Forall (fun b => b_job b = jid) (batches_of jid rt subs).
Proof.
  unfold batches_of. induction subs as [|sub subs IH]; simpl; [constructor|].
  apply Forall_app. split; [|exact IH]. destruct (retain_tasks rt sub); constructor; [reflexivity | constructor].
Qed.

Lemma restore_job_ids jid rj job bs :
  restore_job jid rj = Ok (job, bs) -> sj_id job = jid /\ Forall (fun b => b_job b = jid) bs.
Proof.
  unfold restore_job. rewrite restore_submits_spec.
  destruct (attach_subs [] (rj_submits rj)); [|discriminate]. intros H; inversion H; subst; simpl.
  split; [reflexivity | apply batches_of_job].
Qed.

Lemma filter_const {A} (f : A -> bool) c l : Forall (fun x => f x = c) l -> filter f l = if c then l else [].
Proof. induction 1 as [|x l Hx _ IH]; simpl; [now destruct c | rewrite Hx, IH; now destruct c]. Qed.

Lemma restore_jobs_proj L js : forall jobs bs,
  restore_jobs js = Ok (jobs, bs) ->
  restore_jobs (proj L js) = Ok (filter (fun j => memN (sj_id j) L) jobs, filter (fun b => memN (b_job b) L) bs).
Proof.
  induction js as [|[jid rj] js IH]; intros jobs bs H; simpl in *.
  - inversion H; subst. reflexivity.
  - destruct (restore_job jid rj) as [[job b1]| |] eqn:E; try discriminate.
    destruct (restore_jobs js) as [[jobs' bss]| |] eqn:E2; try discriminate.
    inversion H; subst. clear H. specialize (IH _ _ eq_refl).
    destruct (restore_job_ids _ _ _ _ E) as [Hid Hb]. unfold keep; simpl. rewrite filter_app, Hid.
    (* the batches of one job are kept or dropped together with it *)
    rewrite (filter_const _ (memN jid L) b1)
      by (eapply Forall_impl; [|exact Hb]; intros b Hbj; simpl in Hbj; now rewrite Hbj).
    destruct (memN jid L); simpl; [rewrite E, IH | rewrite IH]; reflexivity.
Qed.

(** ** C12_prune_equiv / C12_prune_wellformed *)

Lemma PR0 L : PR L rs0 rs0.
Proof. unfold PR, rs0; simpl. repeat split; lia. Qed.

Theorem prune_equiv : forall lj lw evs r,
  restore evs = Ok r -> Forall (keeps_loss lw) evs ->
  exists r', restore (prune lj lw evs) = Ok r'
    /\ r_jobs r' = filter (fun j => memN (sj_id j) lj) (r_jobs r)
    /\ r_batches r' = filter (fun b => memN (b_job b) lj) (r_batches r)
    /\ r_uid r' = r_uid r
    /\ List.map fst (r_queues r') = List.map fst (r_queues r)
    /\ r_queue_counter r' = r_queue_counter r
    /\ r_job_counter r' <= r_job_counter r /\ r_worker_counter r' <= r_worker_counter r.
Proof.
  intros lj lw evs r Hr Hk. unfold restore in *.
  destruct (load rs0 evs) as [s| |] eqn:El; try discriminate.
  destruct (load_PR lj lw evs rs0 rs0 s (PR0 lj) Hk El) as (p & Hp & (A & B & C & D & E & F & G)).
  rewrite Hp. unfold finish in *.
  destruct (restore_jobs (rs_jobs s)) as [[jobs bs]| |] eqn:Ej; try discriminate.
  inversion Hr; subst r. clear Hr. rewrite A, (restore_jobs_proj lj _ _ _ Ej).
  eexists. split; [reflexivity|]. simpl. rewrite B, D, E.
  repeat split; try reflexivity; try lia.
  rewrite !map_map. simpl. reflexivity.
Qed.

Inductive subevent : Event -> Event -> Prop :=
| se_same e : subevent e e
| se_canceled ids ids' : (forall x, In x ids' -> In x ids) -> subevent (ETasksCanceled ids') (ETasksCanceled ids)
| se_aborted ids ids' : (forall x, In x ids' -> In x ids) -> subevent (ETasksAborted ids') (ETasksAborted ids).

Lemma prune_event_sub lj lw e e' : prune_event lj lw e = Some e' -> subevent e' e.
Proof.
  destruct e; simpl; intros H.
  (* job and worker records are kept as they are or dropped *)
  1-8: destruct (memN j lj); [|discriminate].
  11-13: destruct (memN w lw); [|discriminate].
  (* the two batch records: the ids kept are among the ids *)
  9-10: destruct (filter _ ids) eqn:E; [discriminate|]; injection H as <-; constructor;
        intros x Hx; rewrite <- E in Hx; apply filter_In in Hx; tauto.
  all: injection H as <-; constructor.
Qed.

(** ** C12_prune_idempotent_append (as an equation between journals) *)

Lemma prune_app lj lw evs evs' : prune lj lw (evs ++ evs') = prune lj lw evs ++ prune lj lw evs'.
Proof. unfold prune. apply flat_map_app. Qed.

Lemma filter_filter_imp {A} (f g : A -> bool) l :
  (forall x, In x l -> g x = true -> f x = true) -> filter g (filter f l) = filter g l.
Proof.
  induction l as [|a l IH]; intros H; simpl; [reflexivity|].
  destruct (f a) eqn:Ef; simpl.
  - destruct (g a); [f_equal|]; apply IH; intros x Hx; apply H; now right.
  - destruct (g a) eqn:Eg; [rewrite (H a (or_introl eq_refl) Eg) in Ef; discriminate|].
    apply IH; intros x Hx; apply H; now right.
Qed.

(** Live sets only shrink on the ids a journal mentions (a completed job stays completed, a lost
    worker never reconnects): pruning an already pruned journal again is pruning the original. *)
Lemma prune_event_twice lj lw lj' lw' e :
  (forall j, In j (ev_job_ids e) -> memN j lj' = true -> memN j lj = true) ->
  (forall w, memN w lw' = true -> memN w lw = true) ->
  match prune_event lj lw e with
  | Some e1 => prune_event lj' lw' e1 = prune_event lj' lw' e
  | None => prune_event lj' lw' e = None
  end.
Proof.
  intros Hj Hw. destruct e; simpl in *;
    try (destruct (memN j lj) eqn:E; [reflexivity|];
         destruct (memN j lj') eqn:E'; [rewrite (Hj j (or_introl eq_refl) E') in E; discriminate | reflexivity]);
    try (destruct (memN w lw) eqn:E; [reflexivity|];
         destruct (memN w lw') eqn:E'; [rewrite (Hw w E') in E; discriminate | reflexivity]);
    try reflexivity.
  (* the two batch records: filtering by [lj] first does not change what [lj'] keeps *)
  all: assert (F : filter (fun id : N * N => memN (fst id) lj') (filter (fun id : N * N => memN (fst id) lj) ids)
                   = filter (fun id : N * N => memN (fst id) lj') ids)
         by (apply filter_filter_imp; intros x Hx Hg; apply Hj; [now apply in_map | exact Hg]).
  all: destruct (filter (fun id : N * N => memN (fst id) lj) ids) eqn:E1; simpl in *; [now rewrite <- F | now rewrite F].
Qed.

Theorem prune_twice : forall lj lw lj' lw' evs,
  (forall e j, In e evs -> In j (ev_job_ids e) -> memN j lj' = true -> memN j lj = true) ->
  (forall w, memN w lw' = true -> memN w lw = true) ->
  prune lj' lw' (prune lj lw evs) = prune lj' lw' evs.
Proof.
  intros lj lw lj' lw' evs Hj Hw. induction evs as [|e evs IH]; [reflexivity|].
  change (e :: evs) with ([e] ++ evs). rewrite !prune_app, IH by (intros e0 j H; apply Hj; now right).
  f_equal. unfold prune; simpl. rewrite !app_nil_r.
  pose proof (prune_event_twice lj lw lj' lw' e (fun j => Hj e j (or_introl eq_refl)) Hw) as H.
  destruct (prune_event lj lw e) as [e1|]; simpl.
  - rewrite app_nil_r. now rewrite H.
  - now rewrite H.
Qed.

Theorem prune_idempotent_append : forall lj lw lj' lw' evs evs',
  (forall e j, In e evs -> In j (ev_job_ids e) -> memN j lj' = true -> memN j lj = true) ->
  (forall w, memN w lw' = true -> memN w lw = true) ->
  prune lj' lw' (prune lj lw evs ++ evs') = prune lj' lw' (evs ++ evs').
Proof. intros. rewrite !prune_app, prune_twice by assumption. reflexivity. Qed.

(** * Known findings: what prune does lose (witnesses) *)

Definition f8_crash_journal : list Event :=
  [ESubmit 1 true [mkTS 0 (CMax 5) []]; EWorkerConnected 1 None; ETaskStarted 1 0 0 [1]; EWorkerLost 1 RHbLost].

Lemma prune_equiv_refuted :
  exists evs lj lw r r', restore evs = Ok r /\ restore (prune lj lw evs) = Ok r'
    /\ List.map batch_view (r_batches r) <> List.map batch_view (r_batches r').
Proof.
  exists f8_crash_journal, [1], [].
  eexists. eexists. split; [vm_compute; reflexivity|]. split; [vm_compute; reflexivity|]. vm_compute. discriminate.
Qed.

Definition f8_ids_journal : list Event :=
  [ESubmit 1 true [mkTS 0 (CMax 5) []]; EWorkerConnected 1 None; ETaskStarted 1 0 0 [1]; ETaskFinished 1 0;
   EJobCompleted 1; EWorkerLost 1 RStopped].

Lemma prune_keeps_ids_refuted :
  exists evs lj lw r r', restore evs = Ok r /\ restore (prune lj lw evs) = Ok r'
    /\ r_job_counter r' < r_job_counter r /\ r_worker_counter r' < r_worker_counter r.
Proof.
  exists f8_ids_journal, [], [].
  eexists. eexists. split; [vm_compute; reflexivity|]. split; [vm_compute; reflexivity|]. vm_compute. split; reflexivity.
Qed.

Definition f8_queue_journal : list Event :=
  [EQueueCreated 1; EAllocQueued 1 5; EWorkerConnected 1 (Some 5); EWorkerLost 1 RStopped].

Lemma prune_queue_resources_refuted :
  exists evs lj lw r r', restore evs = Ok r /\ restore (prune lj lw evs) = Ok r' /\ r_queues r <> r_queues r'.
Proof.
  exists f8_queue_journal, [], [].
  eexists. eexists. split; [vm_compute; reflexivity|]. split; [vm_compute; reflexivity|]. vm_compute. discriminate.
Qed.

(** Non-vacuity of [prune_equiv]: a journal with a completed and a live job and no failure loss,
    pruned with the server's sets. *)
Example prune_equiv_example :
  let evs := [EServerStart 1; ESubmit 1 true [mkTS 0 (CMax 5) []]; ESubmit 2 true [mkTS 0 (CMax 5) []; mkTS 1 (CMax 5) [0]];
              EWorkerConnected 1 None; ETaskStarted 1 0 0 [1]; ETaskFinished 1 0; EJobCompleted 1;
              ETaskStarted 2 0 0 [1]; EWorkerLost 1 RStopped] in
  Forall (keeps_loss []) evs
  /\ (exists g, grun g0 evs = Some g /\ live_jobs g = [2] /\ live_workers g = [])
  /\ List.length (prune [2] [] evs) = 3%nat.
Proof. split; [repeat constructor; simpl; discriminate|]. split; [eexists; split; [vm_compute; reflexivity | split; reflexivity]|]. reflexivity. Qed.
