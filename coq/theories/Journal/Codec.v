(** Codec layer of the journal (C10_torn_tail): prefix-deterministic parser combinators.

    A [Codec A] is an encoder / decoder pair with two laws:
      [c_rt]  : decoding [enc a ++ rest] yields [a] and leaves exactly [rest]   (self-delimiting),
      [c_eof] : decoding a STRICT prefix of [enc a] reports end-of-input ([DEof]),
    i.e. what bincode over a [BufReader] does (every read either succeeds or fails with
    UnexpectedEof).  The laws are preserved by every combinator below (bytes, fixed-width and
    length-prefixed integers, pairs = struct fields, tagged sums = enum variants, options,
    length-prefixed sequences and byte strings), so every record format built from them - in
    particular any layout of [Event] / [SubmitRequest] / [WorkerConfiguration] - satisfies them.
    [read_all] is [JournalReader]'s loop; [torn_tail] is the property of [load_event_file] +
    [create_or_append(truncate)] on a journal whose last record is cut. *)
From HQ Require Import Base.Prelude.
Require Import ZifyBool ZifyNat.

Inductive dres (A : Type) := DOk (a : A) | DEof | DErr.
Arguments DOk {A} a. Arguments DEof {A}. Arguments DErr {A}.

Definition byte := N.

Definition strict_prefix (p l : list byte) : Prop := exists s, s <> [] /\ l = p ++ s.

Record Codec (A : Type) := mkCodec {
  enc : A -> list byte;
  dec : list byte -> dres (A * list byte);
  c_rt : forall a rest, dec (enc a ++ rest) = DOk (a, rest);
  c_eof : forall a p, strict_prefix p (enc a) -> dec p = DEof }.
Arguments enc {A} _ _. Arguments dec {A} _ _. Arguments c_rt {A} _ _ _. Arguments c_eof {A} _ _ _ _.

Lemma strict_prefix_nil p : ~ strict_prefix p [].
Proof. intros [s [Hs E]]. destruct p, s; try discriminate. contradiction. Qed.

Lemma strict_prefix_cons p a l :
  strict_prefix p (a :: l) -> p = [] \/ exists p', p = a :: p' /\ strict_prefix p' l.
Proof.
  intros [s [Hs E]]. destruct p as [|b p]; [now left | right]. injection E as -> E.
  exists p. split; [reflexivity | exists s; auto].
Qed.

Lemma strict_prefix_app p x y :
  strict_prefix p (x ++ y) ->
  strict_prefix p x \/ exists p', p = x ++ p' /\ strict_prefix p' y.
Proof.
  revert p. induction x as [|a x IH]; intros p H; simpl in *.
  - right. exists p. auto.
  - destruct (strict_prefix_cons _ _ _ H) as [->|(p' & -> & H')].
    + left. exists (a :: x). split; [discriminate | reflexivity].
    + destruct (IH p' H') as [[s [Hs E]]|(p'' & -> & Hy)].
      * left. exists s. split; [assumption | simpl; now rewrite E].
      * right. exists p''. auto.
Qed.

Program Definition c_byte : Codec byte :=
  mkCodec _ (fun b => [b]) (fun l => match l with [] => DEof | b :: r => DOk (b, r) end) _ _.
Next Obligation. destruct H as [s [Hs E]]. destruct p as [|b p]; [reflexivity|]. inversion E. destruct p; [|discriminate]. simpl in *. subst. contradiction. Qed.

Program Definition c_unit : Codec unit :=
  mkCodec _ (fun _ => []) (fun l => DOk (tt, l)) _ _.
Next Obligation. now destruct a. Qed.
Next Obligation. destruct H as [s [Hs E]]. destruct p, s; try discriminate. contradiction. Qed.

(** Struct: fields one after the other. *)
Program Definition c_pair {A B} (ca : Codec A) (cb : Codec B) : Codec (A * B) :=
  mkCodec _ (fun ab => enc ca (fst ab) ++ enc cb (snd ab))
    (fun l => match dec ca l with
              | DOk (a, r) => match dec cb r with DOk (b, r') => DOk ((a, b), r') | DEof => DEof | DErr => DErr end
              | DEof => DEof | DErr => DErr end) _ _.
Next Obligation. rewrite <- app_assoc, c_rt, c_rt. reflexivity. Qed.
Next Obligation.
  apply strict_prefix_app in H. destruct H as [H|[p' [-> H]]].
  - now rewrite (c_eof ca _ p H).
  - rewrite c_rt. now rewrite (c_eof cb _ p' H).
Qed.

(** Enum with two variants: a tag byte, then the payload (n-ary enums are nested sums). *)
Program Definition c_sum {A B} (ca : Codec A) (cb : Codec B) : Codec (A + B) :=
  mkCodec _ (fun x => match x with inl a => 0%N :: enc ca a | inr b => 1%N :: enc cb b end)
    (fun l => match l with
              | [] => DEof
              | t :: r =>
                  if N.eqb t 0 then match dec ca r with DOk (a, r') => DOk (inl a, r') | DEof => DEof | DErr => DErr end
                  else if N.eqb t 1 then match dec cb r with DOk (b, r') => DOk (inr b, r') | DEof => DEof | DErr => DErr end
                  else DErr
              end) _ _.
Next Obligation. destruct a; simpl; now rewrite c_rt. Qed.
Next Obligation.
  destruct H as [s [Hs E]]. destruct p as [|t p]; [reflexivity|].
  destruct a as [a|b]; simpl in E; inversion E as [[Ht Hp]]; subst t; simpl.
  - rewrite (c_eof ca a p); [reflexivity | exists s; split; [exact Hs | exact Hp]].
  - rewrite (c_eof cb b p); [reflexivity | exists s; split; [exact Hs | exact Hp]].
Qed.

Definition c_opt {A} (ca : Codec A) : Codec (unit + A) := c_sum c_unit ca.

(** A length: unary (any self-delimiting integer format obeys the same two laws). *)
Fixpoint enc_nat (n : nat) : list byte := match n with O => [0%N] | S k => 1%N :: enc_nat k end.
Fixpoint dec_nat (fuel : nat) (l : list byte) : dres (nat * list byte) :=
  match l with
  | [] => DEof
  | b :: r => if N.eqb b 0 then DOk (O, r)
              else match fuel with
                   | O => DErr
                   | S f => match dec_nat f r with DOk (k, r') => DOk (S k, r') | DEof => DEof | DErr => DErr end
                   end
  end.

Lemma dec_nat_rt n : forall fuel rest, (n <= fuel)%nat -> dec_nat fuel (enc_nat n ++ rest) = DOk (n, rest).
Proof.
  induction n as [|n IH]; intros fuel rest H; simpl.
  - destruct fuel; reflexivity.
  - destruct fuel as [|f]; [lia|]. simpl. rewrite IH by lia. reflexivity.
Qed.

Lemma dec_nat_eof n : forall fuel p, (n <= fuel)%nat -> strict_prefix p (enc_nat n) -> dec_nat fuel p = DEof.
Proof.
  induction n as [|n IH]; intros fuel p Hf H; simpl in H;
    destruct (strict_prefix_cons _ _ _ H) as [->|(p' & -> & H')]; try (destruct fuel; reflexivity).
  - now apply strict_prefix_nil in H'.
  - destruct fuel as [|f]; [lia|]. simpl. rewrite (IH f p'); [reflexivity | lia | assumption].
Qed.

Program Definition c_nat : Codec nat :=
  mkCodec _ enc_nat (fun l => dec_nat (length l) l) _ _.
Next Obligation.
  apply dec_nat_rt. rewrite app_length. clear. induction a; simpl; lia.
Qed.
Next Obligation.
  (* a strict prefix of [enc_nat a] consists of 1-bytes only: it is shorter than [a] allows *)
  destruct H as [s [Hs E]]. revert a s Hs E. induction p as [|b p IH]; intros a s Hs E; [reflexivity|].
  destruct a as [|a]; simpl in E; inversion E; subst.
  - destruct p; [|discriminate]. simpl in *. subst. contradiction.
  - simpl. rewrite (IH a s Hs H1). reflexivity.
Qed.

(** Length-prefixed sequence (Vec<T>, byte strings = sequences of bytes). *)
Fixpoint enc_items {A} (ca : Codec A) (l : list A) : list byte :=
  match l with [] => [] | a :: r => enc ca a ++ enc_items ca r end.
Fixpoint dec_items {A} (ca : Codec A) (n : nat) (l : list byte) : dres (list A * list byte) :=
  match n with
  | O => DOk ([], l)
  | S k => match dec ca l with
           | DOk (a, r) => match dec_items ca k r with DOk (xs, r') => DOk (a :: xs, r') | DEof => DEof | DErr => DErr end
           | DEof => DEof | DErr => DErr
           end
  end.

Lemma dec_items_rt {A} (ca : Codec A) l rest : dec_items ca (length l) (enc_items ca l ++ rest) = DOk (l, rest).
Proof. induction l as [|a l IH]; simpl; [reflexivity|]. now rewrite <- app_assoc, c_rt, IH. Qed.

Lemma dec_items_eof {A} (ca : Codec A) l : forall p, strict_prefix p (enc_items ca l) -> dec_items ca (length l) p = DEof.
Proof.
  induction l as [|a l IH]; intros p H; simpl in *.
  - now apply strict_prefix_nil in H.
  - apply strict_prefix_app in H. destruct H as [H|[p' [-> H]]].
    + now rewrite (c_eof ca a p H).
    + rewrite c_rt. now rewrite (IH p' H).
Qed.

Definition list_enc {A} (ca : Codec A) (l : list A) : list byte := enc c_nat (length l) ++ enc_items ca l.
Definition list_dec {A} (ca : Codec A) (inp : list byte) : dres (list A * list byte) :=
  match dec c_nat inp with
  | DOk (n, r) => dec_items ca n r
  | DEof => DEof
  | DErr => DErr
  end.

Lemma list_rt {A} (ca : Codec A) l rest : list_dec ca (list_enc ca l ++ rest) = DOk (l, rest).
Proof. unfold list_dec, list_enc. rewrite <- app_assoc. rewrite (c_rt c_nat). apply dec_items_rt. Qed.

Lemma list_eof {A} (ca : Codec A) l p : strict_prefix p (list_enc ca l) -> list_dec ca p = DEof.
Proof.
  unfold list_dec, list_enc. intros H. apply strict_prefix_app in H. destruct H as [H|[p' [-> H]]].
  - now rewrite (c_eof c_nat _ p H).
  - rewrite (c_rt c_nat). now apply dec_items_eof.
Qed.

Definition c_list {A} (ca : Codec A) : Codec (list A) :=
  mkCodec _ (list_enc ca) (list_dec ca) (list_rt ca) (list_eof ca).

Section Reader.
  Context {A : Type} (c : Codec A).
  (** Every record occupies at least one byte (true of [Event]: timestamp + variant tag). *)
  Hypothesis enc_nonempty : forall a, enc c a <> [].

  Definition journal (vs : list A) : list byte := concat (List.map (enc c) vs).

  (** [JournalReader::next] in a loop: the records read, [contains_partial_data], [position]
      (= number of bytes consumed by complete records), and whether a corrupted record was hit. *)
  Fixpoint read_all (fuel : nat) (inp : list byte) (pos : nat) : list A * bool * nat * bool :=
    match fuel with
    | O => ([], false, pos, false)
    | S f =>
        match inp with
        | [] => ([], false, pos, false)
        | _ => match dec c inp with
               | DOk (a, rest) =>
                   let '(l, part, q, bad) := read_all f rest (pos + (length inp - length rest)) in
                   (a :: l, part, q, bad)
               | DEof => ([], true, pos, false)
               | DErr => ([], false, pos, true)
               end
        end
    end.

  Lemma read_all_journal vs : forall fuel tail pos,
    (length vs < fuel)%nat ->
    (tail = [] \/ exists v, strict_prefix tail (enc c v)) ->
    read_all fuel (journal vs ++ tail) pos =
    (vs, match tail with [] => false | _ => true end, pos + length (journal vs), false).
  Proof.
    induction vs as [|v vs IH]; intros fuel tail pos Hf Ht; simpl in *.
    - destruct fuel as [|f]; [lia|]. simpl. destruct tail as [|b tail]; [f_equal; f_equal; lia|].
      destruct Ht as [Ht|[v Hv]]; [discriminate|]. rewrite (c_eof c v _ Hv). f_equal. f_equal. lia.
    - destruct fuel as [|f]; [lia|]. cbn [read_all].
      unfold journal in *. simpl. rewrite <- app_assoc.
      destruct (enc c v ++ concat (List.map (enc c) vs) ++ tail) as [|b0 l0] eqn:E.
      + exfalso. destruct (enc c v) eqn:Ev; [now apply (enc_nonempty v) | discriminate].
      + rewrite <- E. rewrite c_rt. rewrite IH by (try lia; assumption).
        f_equal. f_equal. rewrite !app_length. lia.
  Qed.

  (** C10_torn_tail: a journal followed by a strict prefix of one more record is read back
      completely, the torn record is reported as partial data (not as corruption), and
      [position] is the end of the last complete record ... *)
  Theorem torn_tail : forall vs v p,
    strict_prefix p (enc c v) ->
    read_all (S (length vs)) (journal vs ++ p) 0 =
    (vs, match p with [] => false | _ => true end, length (journal vs), false).
  Proof. intros vs v p H. rewrite read_all_journal; [reflexivity | lia | right; eauto]. Qed.

  (** ... so that truncating the file at [position] (what [create_or_append(path, Some(size))]
      does) and appending further records yields a well-formed journal. *)
  Theorem truncate_then_append : forall vs v p vs',
    strict_prefix p (enc c v) ->
    firstn (length (journal vs)) (journal vs ++ p) = journal vs
    /\ read_all (S (length (vs ++ vs'))) (journal vs ++ journal vs') 0
       = (vs ++ vs', false, length (journal (vs ++ vs')), false).
  Proof.
    intros vs v p vs' H. split.
    - rewrite firstn_app, Nat.sub_diag, firstn_all. simpl. now rewrite app_nil_r.
    - assert (E : journal vs ++ journal vs' = journal (vs ++ vs') ++ [])
        by (unfold journal; now rewrite map_app, concat_app, app_nil_r).
      rewrite E. rewrite read_all_journal; [reflexivity | lia | now left].
  Qed.
End Reader.

(** Non-vacuity: a record format in the shape of the journal's (a timestamp, then an enum whose
    variants carry ids, an optional field and a length-prefixed id list) is an instance. *)
Definition example_record : Codec (nat * (nat + (unit + nat) * list nat)) :=
  c_pair c_nat (c_sum c_nat (c_pair (c_opt c_nat) (c_list c_nat))).

Lemma example_record_nonempty : forall a, enc example_record a <> [].
Proof. intros [t x]. simpl. destruct t; discriminate. Qed.

Example torn_tail_example :
  read_all example_record 3
    (journal example_record [(5, inl 2); (6, inr (inr 1, [3; 4]))] ++ [1%N; 0%N; 1%N]) 0
  = ([(5, inl 2); (6, inr (inr 1, [3; 4]))], true, 33, false)%nat.
Proof. vm_compute. reflexivity. Qed.
