(** Lemmas about the association-list maps of [Journal.Event]. *)
From HQ Require Import Base.Prelude Journal.Event.
Open Scope N_scope.

Lemma memN_in x l : memN x l = true <-> In x l.
Proof.
  unfold memN. rewrite existsb_exists. split.
  - intros [y [H1 H2]]. apply N.eqb_eq in H2. now subst.
  - intros H. exists x. split; [assumption | apply N.eqb_refl].
Qed.

Lemma memN_false x l : memN x l = false <-> ~ In x l.
Proof. rewrite <- memN_in. now destruct (memN x l). Qed.

Section MapLemmas.
  Context {V : Type}.
  Implicit Types m : map V.

  Lemma lookup_insert k k' v m :
    lookup k (insert k' v m) = if N.eqb k k' then Some v else lookup k m.
  Proof.
    induction m as [|[k2 v2] m IH]; simpl; [reflexivity|].
    destruct (N.eqb k' k2) eqn:E; simpl.
    - apply N.eqb_eq in E; subst k2. now destruct (N.eqb k k').
    - rewrite IH. destruct (N.eqb k k2) eqn:E2; [|reflexivity].
      apply N.eqb_eq in E2; subst k2. now rewrite N.eqb_sym, E.
  Qed.

  Lemma lookup_insert_eq k v m : lookup k (insert k v m) = Some v.
  Proof. now rewrite lookup_insert, N.eqb_refl. Qed.

  Lemma lookup_insert_neq k k' v m : k <> k' -> lookup k (insert k' v m) = lookup k m.
  Proof. intros H. apply N.eqb_neq in H. now rewrite lookup_insert, H. Qed.

  Lemma lookup_remove k k' m :
    lookup k (remove k' m) = if N.eqb k k' then None else lookup k m.
  Proof.
    induction m as [|[k2 v2] m IH]; simpl.
    - now destruct (N.eqb k k').
    - destruct (N.eqb k' k2) eqn:E; simpl.
      + apply N.eqb_eq in E; subst k2. rewrite IH. now destruct (N.eqb k k').
      + destruct (N.eqb k k2) eqn:E2.
        * apply N.eqb_eq in E2; subst k2.
          destruct (N.eqb k k') eqn:E3; [|reflexivity].
          apply N.eqb_eq in E3; subst. rewrite N.eqb_refl in E. discriminate.
        * exact IH.
  Qed.

  Lemma keys_insert_mem k v m : mem k m = true -> keys (insert k v m) = keys m.
  Proof.
    unfold mem. induction m as [|[k' v'] m IH]; simpl; [discriminate|].
    destruct (N.eqb k k') eqn:E; simpl.
    - apply N.eqb_eq in E. now subst.
    - intros H. now rewrite IH.
  Qed.

  Lemma keys_insert_new k v m : mem k m = false -> keys (insert k v m) = keys m ++ [k].
  Proof.
    unfold mem. induction m as [|[k' v'] m IH]; simpl; [reflexivity|].
    destruct (N.eqb k k') eqn:E; simpl; [discriminate|].
    intros H. now rewrite IH.
  Qed.

  Lemma mem_memN_keys k m : mem k m = memN k (keys m).
  Proof.
    unfold mem, memN. induction m as [|[k' v'] m IH]; simpl; [reflexivity|].
    destruct (N.eqb k k'); [reflexivity | exact IH].
  Qed.

  Lemma lookup_none_keys k m : lookup k m = None <-> ~ In k (keys m).
  Proof.
    rewrite <- memN_false, <- mem_memN_keys. unfold mem. destruct (lookup k m); split; congruence.
  Qed.

  Lemma lookup_in k v m : lookup k m = Some v -> In (k, v) m.
  Proof.
    induction m as [|[k' v'] m IH]; simpl; [discriminate|].
    destruct (N.eqb k k') eqn:E.
    - apply N.eqb_eq in E; subst. intros H; inversion H; subst. now left.
    - intros H. right. now apply IH.
  Qed.

  Lemma lookup_some_keys k v m : lookup k m = Some v -> In k (keys m).
  Proof. intros H. apply lookup_in in H. change k with (fst (k, v)). now apply in_map. Qed.

  Lemma in_lookup k v m : NoDup (keys m) -> In (k, v) m -> lookup k m = Some v.
  Proof.
    induction m as [|[k' v'] m IH]; simpl; [tauto|].
    intros Hnd [H|H].
    - inversion H; subst. now rewrite N.eqb_refl.
    - inversion Hnd as [|? ? Hn Hnd']; subst.
      destruct (N.eqb k k') eqn:E.
      + apply N.eqb_eq in E; subst. exfalso. apply Hn. change k' with (fst (k', v)). now apply in_map.
      + now apply IH.
  Qed.

  Lemma nodup_snoc (k : N) (l : list N) : NoDup l -> ~ In k l -> NoDup (l ++ [k]).
  Proof.
    induction l as [|a l IH]; simpl; intros Hnd Hn.
    - constructor; [tauto | constructor].
    - inversion Hnd as [|? ? Ha Hl]; subst. constructor.
      + rewrite in_app_iff. simpl. intros [Hx|[Hx|[]]]; [tauto | subst; apply Hn; now left].
      + apply IH; [assumption | intros Hin; apply Hn; now right].
  Qed.

  Lemma nodup_insert k v m : NoDup (keys m) -> NoDup (keys (insert k v m)).
  Proof.
    intros H. destruct (mem k m) eqn:E.
    - now rewrite keys_insert_mem.
    - rewrite keys_insert_new by assumption.
      apply nodup_snoc; [assumption|]. apply memN_false. now rewrite <- mem_memN_keys.
  Qed.

  Lemma in_keys_insert k k' v m : In k (keys (insert k' v m)) -> k = k' \/ In k (keys m).
  Proof.
    destruct (mem k' m) eqn:E.
    - rewrite keys_insert_mem by assumption. tauto.
    - rewrite keys_insert_new by assumption. rewrite in_app_iff. simpl. intros [H|[H|[]]]; [tauto | now left].
  Qed.

  Lemma keys_remove k m : keys (remove k m) = filter (fun x => negb (N.eqb k x)) (keys m).
  Proof.
    induction m as [|[k' v'] m IH]; simpl; [reflexivity|].
    destruct (N.eqb k k'); simpl; now rewrite IH.
  Qed.

  Lemma nodup_remove k m : NoDup (keys m) -> NoDup (keys (remove k m)).
  Proof. intros H. rewrite keys_remove. now apply NoDup_filter. Qed.

  Lemma in_keys_remove k k' m : In k (keys (remove k' m)) -> In k (keys m).
  Proof. rewrite keys_remove. intros H. apply filter_In in H. tauto. Qed.

  Lemma keys_map_values (f : N * V -> V) m : keys (List.map (fun kv => (fst kv, f kv)) m) = keys m.
  Proof. unfold keys. rewrite map_map. now apply map_ext. Qed.

  Lemma lookup_map_values (f : V -> V) k m :
    lookup k (List.map (fun kv => (fst kv, f (snd kv))) m) = option_map f (lookup k m).
  Proof.
    induction m as [|[k' v'] m IH]; simpl; [reflexivity|].
    destruct (N.eqb k k'); [reflexivity | exact IH].
  Qed.

  Lemma map_id_values m : List.map (fun kv => (fst kv, id (snd kv))) m = m.
  Proof. induction m as [|[k v] m IH]; simpl; [reflexivity | now rewrite IH]. Qed.
End MapLemmas.

Lemma list_max_ge x l : In x l -> x <= list_max l.
Proof.
  induction l as [|a l IH]; simpl; [tauto|].
  intros [H|H]; [subst; lia | specialize (IH H); lia].
Qed.

Lemma list_max_le l m : (forall x, In x l -> x <= m) -> list_max l <= m.
Proof.
  induction l as [|a l IH]; simpl; intros H; [lia|].
  specialize (IH (fun x Hx => H x (or_intror Hx))). specialize (H a (or_introl eq_refl)). lia.
Qed.

Lemma list_max_incl l l' : (forall x, In x l -> In x l') -> list_max l <= list_max l'.
Proof. intros H. apply list_max_le. intros x Hx. apply list_max_ge, H, Hx. Qed.

Definition map_rel {A B} (P : A -> B -> Prop) (m1 : map A) (m2 : map B) : Prop :=
  Forall2 (fun x y => fst x = fst y /\ P (snd x) (snd y)) m1 m2.

Section MapRel.
  Context {A B : Type} (P : A -> B -> Prop).

  Lemma map_rel_keys m1 m2 : map_rel P m1 m2 -> keys m1 = keys m2.
  Proof. induction 1 as [|[k1 a] [k2 b] l1 l2 [Hk _] _ IH]; simpl in *; congruence. Qed.

  Lemma map_rel_lookup k m1 m2 :
    map_rel P m1 m2 ->
    match lookup k m1, lookup k m2 with
    | Some a, Some b => P a b
    | None, None => True
    | _, _ => False
    end.
  Proof.
    induction 1 as [|[k1 a] [k2 b] l1 l2 [Hk HP] _ IH]; simpl in *; [exact I|].
    subst k2. destruct (N.eqb k k1); [exact HP | exact IH].
  Qed.

  Lemma map_rel_lookup2 k m1 m2 b :
    map_rel P m1 m2 -> lookup k m2 = Some b -> exists a, lookup k m1 = Some a /\ P a b.
  Proof.
    intros H Hb. pose proof (map_rel_lookup k m1 m2 H) as L. rewrite Hb in L.
    destruct (lookup k m1) as [a|]; [eauto | contradiction].
  Qed.

  Lemma map_rel_insert k a b m1 m2 :
    map_rel P m1 m2 -> P a b -> map_rel P (insert k a m1) (insert k b m2).
  Proof.
    induction 1 as [|[k1 a1] [k2 b1] l1 l2 [Hk HP] H IH]; simpl in *; intros Hab.
    - constructor; [split; [reflexivity | exact Hab] | constructor].
    - subst k2. destruct (N.eqb k k1).
      + constructor; [split; [reflexivity | exact Hab] | exact H].
      + constructor; [split; [reflexivity | exact HP] | now apply IH].
  Qed.

  Lemma map_rel_remove k m1 m2 : map_rel P m1 m2 -> map_rel P (remove k m1) (remove k m2).
  Proof.
    induction 1 as [|[k1 a1] [k2 b1] l1 l2 [Hk HP] H IH]; simpl in *; [constructor|].
    subst k2. destruct (N.eqb k k1); [exact IH|].
    constructor; [split; [reflexivity | exact HP] | exact IH].
  Qed.

  Lemma map_rel_map (Q : A -> B -> Prop) (f : A -> A) (g : B -> B) m1 m2 :
    map_rel P m1 m2 -> (forall a b, P a b -> Q (f a) (g b)) ->
    map_rel Q (List.map (fun kv => (fst kv, f (snd kv))) m1) (List.map (fun kv => (fst kv, g (snd kv))) m2).
  Proof.
    intros H Hfg. induction H as [|[k1 a1] [k2 b1] l1 l2 [Hk HP] H IH]; simpl in *; [constructor|].
    constructor; [split; [exact Hk | now apply Hfg] | exact IH].
  Qed.

  Lemma map_rel_map_r (Q : A -> B -> Prop) (g : B -> B) m1 m2 :
    map_rel P m1 m2 -> (forall a b, P a b -> Q a (g b)) ->
    map_rel Q m1 (List.map (fun kv => (fst kv, g (snd kv))) m2).
  Proof.
    intros H Hg. rewrite <- (map_id_values m1). exact (map_rel_map Q id g m1 m2 H Hg).
  Qed.

  Lemma map_rel_impl (Q : A -> B -> Prop) m1 m2 :
    map_rel P m1 m2 -> (forall a b, P a b -> Q a b) -> map_rel Q m1 m2.
  Proof.
    intros H Himp. rewrite <- (map_id_values m1), <- (map_id_values m2). exact (map_rel_map Q id id m1 m2 H Himp).
  Qed.
End MapRel.
