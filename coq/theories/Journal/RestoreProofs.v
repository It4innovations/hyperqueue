(** C10: restore of every producible journal succeeds and yields exactly the abstraction of the
    history's state ([restore evs = Ok r /\ view r = abs g]).  Proof: a simulation between the
    restorer fold ([rstep]) and the journal-producing state machine ([gstep]). *)
From HQ Require Import Base.Prelude Journal.Event Journal.Maps Journal.Restore Journal.Gen.
Require Import ZifyBool ZifyN.
Open Scope N_scope.
Arguments N.add : simpl never.
Arguments N.max : simpl never.
Arguments N.ltb : simpl never.
Arguments N.leb : simpl never.

Definition rstate_of (x : GTask) : tstate :=
  match gt_state x with GWaiting | GRunning => TRunning (gt_ws x) | s => gclass s end.

Definition task_rel (o : option RTask) (x : GTask) : Prop :=
  match gt_last x with
  | Some i => o = Some (mkRT (rstate_of x) (Some i) (gt_crash x))
  | None => gt_crash x = 0 /\
            match gt_state x with
            | GWaiting => o = None
            | GRunning => False
            | s => o = Some (mkRT (gclass s) None 0)
            end
  end.

Definition tasks_rel (rt : map RTask) (gt : map GTask) : Prop :=
  forall t, match lookup t gt with Some x => task_rel (lookup t rt) x | None => lookup t rt = None end.

(** Worker facts about a task: its workers have been issued; a task that waits after a start
    (worker lost / restart) has a root worker that is not connected any more. *)
Definition task_winv (ws : list N) (mw : N) (x : GTask) : Prop :=
  (forall w, In w (gt_ws x) -> w <= mw) /\
  (gt_state x = GWaiting -> match gt_ws x with r :: _ => ~ In r ws | [] => True end).

Fixpoint attach_subs (tasks : map tstate) (subs : list (list TaskSpec)) : option (map tstate) :=
  match subs with
  | [] => Some tasks
  | s :: r => if validate tasks s then attach_subs (attach tasks s) r else None
  end.

Definition waiting_map (ks : list N) : map tstate := List.map (fun k => (k, TWaiting)) ks.

Definition job_wf (gj : GJob) : Prop :=
  NoDup (keys (gj_tasks gj)) /\ attach_subs [] (gj_submits gj) = Some (waiting_map (keys (gj_tasks gj))).

Definition job_rel (ws : list N) (mw : N) (rj : RJob) (gj : GJob) : Prop :=
  rj_open rj = gj_open gj /\ rj_submits rj = gj_submits gj /\ tasks_rel (rj_tasks rj) (gj_tasks gj)
  /\ job_wf gj /\ (forall t x, lookup t (gj_tasks gj) = Some x -> task_winv ws mw x).

Definition Rel (rs : RS) (g : G) : Prop :=
  map_rel (job_rel (g_workers g) (g_max_worker g)) (rs_jobs rs) (g_jobs g)
  /\ rs_max_job rs = g_max_job g /\ rs_max_worker rs = g_max_worker g /\ rs_max_queue rs = g_max_queue g
  /\ rs_q2w rs = g_q2w g /\ rs_a2q rs = g_a2q g /\ rs_queues rs = g_queues g /\ rs_uid rs = g_uid g
  /\ (forall w, In w (g_workers g) -> w <= g_max_worker g)
  /\ (forall j, In j (keys (g_jobs g)) -> j <= g_max_job g)
  /\ (forall q, In q (keys (g_queues g)) -> q <= g_max_queue g).

Lemma Rel0 : Rel rs0 g0.
Proof. unfold Rel, rs0, g0; simpl. repeat split; try constructor; try tauto. Qed.

Lemma rstate_of_live x : g_terminal (gt_state x) = false -> rstate_of x = TRunning (gt_ws x).
Proof. unfold rstate_of. now destruct (gt_state x). Qed.

Lemma task_rel_inv o x :
  task_rel o x ->
  match o with
  | Some r => r = mkRT (rstate_of x) (gt_last x) (gt_crash x)
  | None => gt_state x = GWaiting /\ gt_last x = None /\ gt_crash x = 0
  end.
Proof.
  unfold task_rel, rstate_of. destruct (gt_last x).
  - now intros ->.
  - intros [-> H]. destruct (gt_state x); try contradiction; rewrite H; auto.
Qed.

Lemma task_rel_fields o x :
  task_rel o x ->
  match o with Some r => rt_inst r | None => None end = gt_last x
  /\ match o with Some r => rt_crash r | None => 0 end = gt_crash x.
Proof. intros H. apply task_rel_inv in H. destruct o; [now subst | now destruct H as (_ & -> & ->)]. Qed.

Lemma task_rel_term o x term :
  task_rel o x -> g_terminal term = true ->
  task_rel (Some (mkRT (gclass term) (gt_last x) (gt_crash x))) (mkGT term (gt_last x) (gt_ws x) (gt_crash x)).
Proof.
  unfold task_rel, rstate_of; simpl. intros H Ht. destruct (gt_last x).
  - destruct term; try discriminate; reflexivity.
  - destruct H as [-> _]. split; [reflexivity|]. destruct term; try discriminate; reflexivity.
Qed.

Lemma winv_not_waiting ws mw x s l c :
  task_winv ws mw x -> s <> GWaiting -> task_winv ws mw (mkGT s l (gt_ws x) c).
Proof. intros [A _] Hs. split; [exact A | simpl; intros E; contradiction]. Qed.

Lemma tasks_rel_insert rt gt t r x :
  tasks_rel rt gt -> task_rel (Some r) x -> tasks_rel (insert t r rt) (insert t x gt).
Proof.
  intros H Hx t'. rewrite !lookup_insert. destruct (N.eqb t' t); [exact Hx | apply H].
Qed.

Lemma tasks_rel_insert_r rt gt t x :
  tasks_rel rt gt -> task_rel (lookup t rt) x -> tasks_rel rt (insert t x gt).
Proof.
  intros H Hx t'. rewrite lookup_insert. destruct (N.eqb t' t) eqn:E; [|apply H].
  apply N.eqb_eq in E. subst. exact Hx.
Qed.

Lemma job_rel_set_task ws mw rj gj t r x x0 :
  job_rel ws mw rj gj -> lookup t (gj_tasks gj) = Some x0 ->
  task_rel (Some r) x -> task_winv ws mw x ->
  job_rel ws mw (set_task rj t r) (gj_set_task gj t x).
Proof.
  intros (Ho & Hs & Ht & [Hnd Ha] & Hw) Hl Hx Hwx. unfold job_rel, job_wf, set_task, gj_set_task; simpl.
  split; [assumption|]. split; [assumption|]. split; [now apply tasks_rel_insert|]. split.
  - rewrite keys_insert_mem by (unfold mem; now rewrite Hl). now split.
  - intros t' x'. rewrite lookup_insert. destruct (N.eqb t' t); [intros E; inversion E; subst; exact Hwx | apply Hw].
Qed.

Definition ids (sub : list TaskSpec) : list N := List.map ts_id sub.

Lemma forallb_ext {A} (f g : A -> bool) l : (forall x, f x = g x) -> forallb f l = forallb g l.
Proof. intros H. induction l as [|a l IH]; simpl; [reflexivity | now rewrite H, IH]. Qed.

Definition attach_gen {V} (v : V) (m : map V) (sub : list TaskSpec) : map V :=
  fold_left (fun m ts => insert (ts_id ts) v m) sub m.

Lemma g_attach_is_gen m sub : g_attach m sub = attach_gen fresh_task m sub.
Proof. reflexivity. Qed.

Lemma lookup_attach_gen {V} (v : V) sub : forall m t,
  lookup t (attach_gen v m sub) = if memN t (ids sub) then Some v else lookup t m.
Proof.
  induction sub as [|ts sub IH]; intros m t; simpl; [reflexivity|].
  unfold attach_gen in *. simpl. rewrite IH. rewrite lookup_insert.
  destruct (memN t (ids sub)); [now rewrite Bool.orb_true_r|].
  rewrite Bool.orb_false_r. reflexivity.
Qed.

Lemma nodup_attach sub : forall gt : map GTask, NoDup (keys gt) -> NoDup (keys (g_attach gt sub)).
Proof.
  unfold g_attach. induction sub as [|ts sub IH]; intros gt H; simpl; [exact H|]. apply IH, nodup_insert, H.
Qed.

(** [validate_submit] only looks at which ids exist. *)
Lemma validate_graph_keys {V W} (m1 : map V) (m2 : map W) seen sub :
  keys m1 = keys m2 -> validate_graph m1 seen sub = validate_graph m2 seen sub.
Proof.
  intros Hk. revert seen. induction sub as [|ts sub IH]; intros seen; simpl; [reflexivity|].
  rewrite IH. f_equal. f_equal. apply forallb_ext. intros d. now rewrite !mem_memN_keys, Hk.
Qed.

Lemma validate_keys {V W} (m1 : map V) (m2 : map W) sub :
  keys m1 = keys m2 -> validate m1 sub = validate m2 sub.
Proof.
  intros Hk. unfold validate. rewrite (validate_graph_keys m1 m2 [] sub Hk). f_equal.
  apply forallb_ext. intros ts. now rewrite !mem_memN_keys, Hk.
Qed.

Lemma validate_new {V} (m : map V) sub t : validate m sub = true -> In t (ids sub) -> lookup t m = None.
Proof.
  unfold validate, ids. intros H Hin. apply andb_prop in H. destruct H as [H _].
  apply in_map_iff in Hin. destruct Hin as [ts [<- Hts]].
  rewrite forallb_forall in H. specialize (H ts Hts). unfold mem in H. now destruct (lookup (ts_id ts) m).
Qed.

Lemma keys_waiting_map ks : keys (waiting_map ks) = ks.
Proof. unfold keys, waiting_map. rewrite map_map. simpl. apply map_id. Qed.

Lemma waiting_map_insert {V} k (v : V) m : waiting_map (keys (insert k v m)) = insert k TWaiting (waiting_map (keys m)).
Proof.
  unfold waiting_map, keys. induction m as [|[k' v'] m IH]; simpl; [reflexivity|].
  destruct (N.eqb k k'); simpl; [reflexivity | now rewrite IH].
Qed.

(** Attaching to the all-waiting map is the all-waiting map of the attached tasks: no validity needed. *)
Lemma attach_waiting sub : forall gt : map GTask,
  attach (waiting_map (keys gt)) sub = waiting_map (keys (g_attach gt sub)).
Proof.
  unfold attach, g_attach. induction sub as [|ts sub IH]; intros gt; simpl; [reflexivity|].
  rewrite <- (waiting_map_insert _ fresh_task). apply IH.
Qed.

Lemma attach_subs_app subs : forall m sub,
  attach_subs m (subs ++ [sub]) =
  match attach_subs m subs with
  | Some m' => if validate m' sub then Some (attach m' sub) else None
  | None => None
  end.
Proof.
  induction subs as [|s subs IH]; intros m sub; simpl; [reflexivity|].
  destruct (validate m s); [apply IH | reflexivity].
Qed.

Lemma job_wf_attach o o' subs gt sub :
  validate gt sub = true -> job_wf (mkGJ o subs gt) -> job_wf (mkGJ o' (subs ++ [sub]) (g_attach gt sub)).
Proof.
  unfold job_wf; simpl. intros Hv [Hnd Hat]. split; [now apply nodup_attach|].
  rewrite attach_subs_app, Hat, (validate_keys _ gt) by apply keys_waiting_map.
  now rewrite Hv, attach_waiting.
Qed.

Lemma Rel_jobs rs g j gj :
  Rel rs g -> lookup j (g_jobs g) = Some gj ->
  exists rj, lookup j (rs_jobs rs) = Some rj /\ job_rel (g_workers g) (g_max_worker g) rj gj.
Proof. intros (H & _) Hl. exact (map_rel_lookup2 _ j _ _ gj H Hl). Qed.

Lemma Rel_jobs_none rs g j : Rel rs g -> lookup j (g_jobs g) = None -> lookup j (rs_jobs rs) = None.
Proof.
  intros (H & _) Hl. pose proof (map_rel_lookup _ j _ _ H) as L. rewrite Hl in L.
  destruct (lookup j (rs_jobs rs)); [contradiction | reflexivity].
Qed.

Lemma rstep_noop_ids rs g e :
  Rel rs g ->
  Forall (fun j => In j (keys (g_jobs g))) (ev_job_ids e) ->
  Forall (fun w => In w (g_workers g)) (ev_worker_ids e) ->
  Forall (fun q => q <= g_max_queue g) (ev_queue_ids e) ->
  rstep rs e = rstep_arm rs e.
Proof.
  intros (_ & Hj & Hw & Hq & _ & _ & _ & _ & Kw & Kj & Kq) Ij Iw Iq. rewrite Forall_forall in Ij, Iw, Iq.
  unfold rstep. f_equal. destruct rs; unfold update_max_ids; simpl in *. subst.
  f_equal; apply N.max_l, list_max_le; auto.
Qed.

(** Where every id of the record is known from a hypothesis in the context (a successful lookup, a
    membership test, a bound), [rstep] is [rstep_arm]. *)
Ltac known_ids HR :=
  rewrite (rstep_noop_ids _ _ _ HR) by (simpl; repeat constructor; eauto using lookup_some_keys).

Lemma Rel_upd_job rs g j rj' gj' gj0 :
  Rel rs g -> lookup j (g_jobs g) = Some gj0 ->
  job_rel (g_workers g) (g_max_worker g) rj' gj' ->
  Rel (upd_job rs j rj') (g_set_jobs g (insert j gj' (g_jobs g))).
Proof.
  intros (H & Hrest) Hl Hj. unfold Rel, upd_job, set_jobs, g_set_jobs; simpl.
  split; [now apply map_rel_insert|].
  destruct Hrest as (A1 & A2 & A3 & A4 & A5 & A6 & A7 & A8 & A9 & A10).
  repeat (split; [assumption|]). split; [|assumption].
  intros k Hk. apply in_keys_insert in Hk. destruct Hk as [->|Hk]; [|now apply A9].
  apply A9. now apply lookup_some_keys in Hl.
Qed.

Lemma Rel_task rs g j gj t x :
  Rel rs g -> lookup j (g_jobs g) = Some gj -> lookup t (gj_tasks gj) = Some x ->
  exists rj, lookup j (rs_jobs rs) = Some rj
    /\ task_rel (lookup t (rj_tasks rj)) x
    /\ task_winv (g_workers g) (g_max_worker g) x
    /\ forall r x', task_rel (Some r) x' -> task_winv (g_workers g) (g_max_worker g) x' ->
         Rel (upd_job rs j (set_task rj t r)) (g_upd_task g j gj t x').
Proof.
  intros HR Hj Ht. destruct (Rel_jobs rs g j gj HR Hj) as (rj & Hrj & Hrel). exists rj.
  split; [exact Hrj|]. pose proof Hrel as (_ & _ & Hts & _ & Hw).
  split; [specialize (Hts t); now rewrite Ht in Hts|]. split; [exact (Hw t x Ht)|].
  intros r x' Hx Hwx. eapply Rel_upd_job; [exact HR | exact Hj|].
  eapply job_rel_set_task; eassumption.
Qed.

Lemma sim_started rs g g' j t inst ws :
  Rel rs g -> gstep g (ETaskStarted j t inst ws) = Some g' ->
  exists rs', rstep rs (ETaskStarted j t inst ws) = Ok rs' /\ Rel rs' g'.
Proof.
  intros HR Hg. simpl in Hg.
  destruct (lookup j (g_jobs g)) as [gj|] eqn:Hj; [|discriminate].
  destruct (lookup t (gj_tasks gj)) as [x|] eqn:Ht; [|discriminate].
  destruct (gt_state x); try discriminate. destruct ws as [|w0 ws]; [discriminate|].
  destruct (forallb _ _ && inst_ok _ _) eqn:Hc; [|discriminate]. inversion Hg; subst g'. clear Hg.
  apply andb_prop in Hc. destruct Hc as [Hall _]. rewrite forallb_forall in Hall.
  assert (Hws : Forall (fun w => In w (g_workers g)) (w0 :: ws))
    by (apply Forall_forall; intros w Hw; now apply memN_in, Hall).
  destruct (Rel_task rs g j gj t x HR Hj Ht) as (rj & Hrj & Htr & _ & Hupd).
  rewrite (rstep_noop_ids rs g _ HR); [| repeat constructor; eauto using lookup_some_keys | exact Hws | constructor].
  simpl. rewrite Hrj. eexists. split; [reflexivity|].
  rewrite (proj2 (task_rel_fields _ _ Htr)). apply Hupd; [reflexivity|].
  split; simpl; [|discriminate]. destruct HR as (_ & _ & _ & _ & _ & _ & _ & _ & Kw & _).
  rewrite Forall_forall in Hws. auto.
Qed.

Lemma Rel_term rs g j gj t x term :
  Rel rs g -> lookup j (g_jobs g) = Some gj -> lookup t (gj_tasks gj) = Some x ->
  g_terminal (gt_state x) = false -> g_terminal term = true ->
  exists rj, lookup j (rs_jobs rs) = Some rj
    /\ match lookup t (rj_tasks rj) with
       | Some r => r = mkRT (TRunning (gt_ws x)) (gt_last x) (gt_crash x)
       | None => gt_state x = GWaiting /\ gt_last x = None /\ gt_crash x = 0
       end
    /\ Rel (upd_job rs j (set_task rj t (mkRT (gclass term) (gt_last x) (gt_crash x))))
           (g_upd_task g j gj t (mkGT term (gt_last x) (gt_ws x) (gt_crash x))).
Proof.
  intros HR Hj Ht Hs Hterm. destruct (Rel_task rs g j gj t x HR Hj Ht) as (rj & Hrj & Htr & Hwi & Hupd).
  exists rj. split; [exact Hrj|]. split.
  - rewrite <- (rstate_of_live x Hs). exact (task_rel_inv _ _ Htr).
  - apply Hupd; [exact (task_rel_term _ x term Htr Hterm) | apply winv_not_waiting; [exact Hwi|]].
    intros ->. discriminate.
Qed.

Lemma sim_finished rs g g' j t :
  Rel rs g -> gstep g (ETaskFinished j t) = Some g' ->
  exists rs', rstep rs (ETaskFinished j t) = Ok rs' /\ Rel rs' g'.
Proof.
  intros HR Hg. simpl in Hg.
  destruct (lookup j (g_jobs g)) as [gj|] eqn:Hj; [|discriminate].
  destruct (lookup t (gj_tasks gj)) as [x|] eqn:Ht; [|discriminate].
  destruct (gt_state x) eqn:Hs; try discriminate. inversion Hg; subst g'. clear Hg.
  destruct (Rel_term rs g j gj t x GFinished HR Hj Ht) as (rj & Hrj & Hrec & Hnew); [now rewrite Hs | reflexivity|].
  known_ids HR. simpl. rewrite Hrj.
  destruct (lookup t (rj_tasks rj)) as [r|]; [subst r | destruct Hrec as [E _]; congruence].
  eexists. split; [reflexivity | exact Hnew].
Qed.

Lemma sim_failed rs g g' j t :
  Rel rs g -> gstep g (ETaskFailed j t) = Some g' ->
  exists rs', rstep rs (ETaskFailed j t) = Ok rs' /\ Rel rs' g'.
Proof.
  intros HR Hg. simpl in Hg.
  destruct (lookup j (g_jobs g)) as [gj|] eqn:Hj; [|discriminate].
  destruct (lookup t (gj_tasks gj)) as [x|] eqn:Ht; [|discriminate].
  destruct (g_terminal (gt_state x)) eqn:Hs; try discriminate. inversion Hg; subst g'. clear Hg.
  destruct (Rel_term rs g j gj t x GFailed HR Hj Ht Hs eq_refl) as (rj & Hrj & Hrec & Hnew).
  known_ids HR. simpl. rewrite Hrj.
  destruct (lookup t (rj_tasks rj)) as [r|]; [subst r | destruct Hrec as (_ & <- & <-)];
    (eexists; split; [reflexivity | exact Hnew]).
Qed.

Lemma fold_term_none term ids : fold_left (g_term_one term) ids None = None.
Proof. induction ids; simpl; auto. Qed.

Lemma sim_term_one rs g g' gterm id :
  Rel rs g -> g_terminal gterm = true ->
  g_term_one gterm (Some g) id = Some g' ->
  Rel (term_one (gclass gterm) rs id) g' /\ In (fst id) (keys (g_jobs g)) /\ keys (g_jobs g') = keys (g_jobs g).
Proof.
  intros HR Hterm Hg. destruct id as [j t]. simpl in Hg.
  destruct (lookup j (g_jobs g)) as [gj|] eqn:Hj; [|discriminate].
  destruct (lookup t (gj_tasks gj)) as [x|] eqn:Ht; [|discriminate].
  destruct (g_terminal (gt_state x)) eqn:Hs; [discriminate|]. inversion Hg; subst g'. clear Hg.
  split; [|split; [simpl; now apply lookup_some_keys in Hj|]].
  2:{ simpl. apply keys_insert_mem. unfold mem. now rewrite Hj. }
  destruct (Rel_term rs g j gj t x gterm HR Hj Ht Hs Hterm) as (rj & Hrj & Hrec & Hnew).
  unfold term_one. rewrite Hrj.
  destruct (lookup t (rj_tasks rj)) as [r|]; [subst r | destruct Hrec as (_ & <- & <-)];
    exact Hnew.
Qed.

Lemma sim_term_fold gterm ids : forall rs g g',
  Rel rs g -> g_terminal gterm = true ->
  fold_left (g_term_one gterm) ids (Some g) = Some g' ->
  Rel (fold_left (term_one (gclass gterm)) ids rs) g'
  /\ Forall (fun j => In j (keys (g_jobs g))) (List.map fst ids).
Proof.
  induction ids as [|id ids IH]; intros rs g g' HR Ht Hg; cbn [fold_left List.map] in *.
  - inversion Hg; subst. split; [assumption | constructor].
  - destruct (g_term_one gterm (Some g) id) as [g1|] eqn:E; [|rewrite fold_term_none in Hg; discriminate].
    destruct (sim_term_one rs g g1 gterm id HR Ht E) as (HR1 & Hin & Hk).
    destruct (IH _ _ _ HR1 Ht Hg) as (HR' & Hall).
    split; [assumption|]. constructor; [assumption|]. now rewrite <- Hk.
Qed.

Lemma sim_batch gterm (mk : list (N * N) -> Event) rs g g' ids :
  Rel rs g -> g_terminal gterm = true ->
  ev_job_ids (mk ids) = List.map fst ids -> ev_worker_ids (mk ids) = [] -> ev_queue_ids (mk ids) = [] ->
  rstep_arm rs (mk ids) = Ok (fold_left (term_one (gclass gterm)) ids rs) ->
  fold_left (g_term_one gterm) ids (Some g) = Some g' ->
  exists rs', rstep rs (mk ids) = Ok rs' /\ Rel rs' g'.
Proof.
  intros HR Ht Ej Ew Eq Earm Hg. destruct (sim_term_fold gterm ids rs g g' HR Ht Hg) as (HR' & Hall).
  eexists. split; [|exact HR']. rewrite <- Earm.
  apply (rstep_noop_ids rs g _ HR); [rewrite Ej; exact Hall | rewrite Ew | rewrite Eq]; constructor.
Qed.

Lemma Rel_new_job rs g j rj gj :
  Rel rs g -> g_max_job g < j ->
  job_rel (g_workers g) (g_max_worker g) rj gj ->
  Rel (add_job (update_max_ids rs (EJobOpen j)) j rj)
      (mkG (insert j gj (g_jobs g)) (g_workers g) (g_queues g) (g_a2q g) (g_q2w g) (g_uid g)
           (N.max (g_max_job g) j) (g_max_worker g) (g_max_queue g)).
Proof.
  intros (H & A1 & A2 & A3 & A4 & A5 & A6 & A7 & A8 & A9 & A10) Hlt Hj.
  unfold Rel, add_job, update_max_ids; simpl.
  split; [now apply map_rel_insert|].
  repeat split; try assumption; try (simpl; lia).
  intros k Hk. apply in_keys_insert in Hk. destruct Hk as [->|Hk]; [lia|]. specialize (A9 k Hk). lia.
Qed.

Lemma job_rel_empty ws mw o : job_rel ws mw (mkRJ [] [] o) (mkGJ o [] []).
Proof.
  unfold job_rel, job_wf; simpl. repeat split; try constructor; discriminate.
Qed.

Lemma job_rel_attach ws mw rj gj sub o :
  job_rel ws mw rj gj -> validate (gj_tasks gj) sub = true ->
  job_rel ws mw (mkRJ (rj_submits rj ++ [sub]) (rj_tasks rj) o)
                (mkGJ o (gj_submits gj ++ [sub]) (g_attach (gj_tasks gj) sub)).
Proof.
  intros (_ & Hs & Ht & Hwf & Hw) Hv. unfold job_rel; simpl.
  split; [reflexivity|]. split; [now rewrite Hs|]. split; [|split].
  - intros t. rewrite g_attach_is_gen, lookup_attach_gen. destruct (memN t (ids sub)) eqn:E; [|apply Ht].
    apply memN_in in E. specialize (Ht t). rewrite (validate_new _ sub t Hv E) in Ht.
    unfold task_rel; simpl. auto.
  - destruct gj as [o0 subs gt]. now apply (job_wf_attach o0).
  - intros t x. rewrite g_attach_is_gen, lookup_attach_gen. destruct (memN t (ids sub)); [|apply Hw].
    intros E; inversion E; subst. split; simpl; tauto.
Qed.

Lemma sim_submit rs g g' j closed tasks :
  Rel rs g -> gstep g (ESubmit j closed tasks) = Some g' ->
  exists rs', rstep rs (ESubmit j closed tasks) = Ok rs' /\ Rel rs' g'.
Proof.
  intros HR Hg. simpl in Hg. destruct closed.
  - (* a new job: the empty job with one submit attached *)
    destruct ((g_max_job g <? j) && validate [] tasks) eqn:Hc; [|discriminate]. inversion Hg; subst g'. clear Hg.
    apply andb_prop in Hc. destruct Hc as [Hlt Hv]. apply N.ltb_lt in Hlt.
    eexists. split; [reflexivity|].
    change (update_max_ids rs (ESubmit j true tasks)) with (update_max_ids rs (EJobOpen j)).
    apply Rel_new_job; [assumption | assumption|].
    exact (job_rel_attach _ _ _ _ tasks false (job_rel_empty _ _ false) Hv).
  - destruct (lookup j (g_jobs g)) as [gj|] eqn:Hj; [|discriminate].
    destruct (gj_open gj && validate (gj_tasks gj) tasks) eqn:Hc; [|discriminate]. inversion Hg; subst g'. clear Hg.
    apply andb_prop in Hc. destruct Hc as [Hop Hv].
    destruct (Rel_jobs rs g j gj HR Hj) as (rj & Hrj & Hrel).
    known_ids HR.
    simpl. rewrite Hrj. eexists. split; [reflexivity|].
    eapply Rel_upd_job; try eassumption.
    rewrite (proj1 Hrel), Hop. now apply job_rel_attach.
Qed.

Lemma job_wf_map gj (h : GTask -> GTask) :
  job_wf gj -> job_wf (mkGJ (gj_open gj) (gj_submits gj) (List.map (fun kv => (fst kv, h (snd kv))) (gj_tasks gj))).
Proof. unfold job_wf; simpl. now rewrite (keys_map_values (fun kv => h (snd kv))). Qed.

(** Rewriting every task on both sides: it is enough to look at one record and its task. *)
Lemma job_rel_map ws ws' mw (f : RTask -> RTask) (h : GTask -> GTask) rj gj :
  job_rel ws mw rj gj ->
  (forall o x, task_rel o x -> task_winv ws mw x ->
               task_rel (option_map f o) (h x) /\ task_winv ws' mw (h x)) ->
  job_rel ws' mw (mkRJ (rj_submits rj) (List.map (fun kv => (fst kv, f (snd kv))) (rj_tasks rj)) (rj_open rj))
                 (mkGJ (gj_open gj) (gj_submits gj) (List.map (fun kv => (fst kv, h (snd kv))) (gj_tasks gj))).
Proof.
  intros (Ho & Hs & Ht & Hwf & Hwi) Hfh. unfold job_rel; simpl.
  split; [assumption|]. split; [assumption|]. split; [|split; [now apply job_wf_map|]].
  - intros t. rewrite !lookup_map_values. specialize (Ht t).
    destruct (lookup t (gj_tasks gj)) as [x|] eqn:E; simpl; [|now rewrite Ht].
    exact (proj1 (Hfh _ x Ht (Hwi t x E))).
  - intros t x'. rewrite lookup_map_values. specialize (Ht t).
    destruct (lookup t (gj_tasks gj)) as [x|] eqn:E; simpl; [|discriminate].
    intros Ex. injection Ex as <-. exact (proj2 (Hfh _ x Ht (Hwi t x E))).
Qed.

Lemma job_rel_map_r ws ws' mw (h : GTask -> GTask) rj gj :
  job_rel ws mw rj gj ->
  (forall o x, task_rel o x -> task_winv ws mw x -> task_rel o (h x) /\ task_winv ws' mw (h x)) ->
  job_rel ws' mw rj (mkGJ (gj_open gj) (gj_submits gj) (List.map (fun kv => (fst kv, h (snd kv))) (gj_tasks gj))).
Proof.
  intros Hrel Hh. destruct rj as [subs rt o]. rewrite <- (map_id_values rt).
  apply (job_rel_map ws ws' mw id h (mkRJ subs rt o) gj Hrel).
  intros o' x Ho' Hw. destruct o'; exact (Hh _ x Ho' Hw).
Qed.

Lemma g_lose_task_ws w f x : gt_ws (g_lose_task w f x) = gt_ws x.
Proof.
  unfold g_lose_task. destruct (gt_state x); try reflexivity.
  destruct (gt_ws x) as [|r0 l] eqn:E; [exact E|]. destruct (N.eqb r0 w); simpl; congruence.
Qed.

Lemma g_lose_task_waiting w f x :
  gt_state (g_lose_task w f x) = GWaiting ->
  gt_state x = GWaiting \/ (exists l, gt_ws x = w :: l).
Proof.
  unfold g_lose_task. destruct (gt_state x) eqn:Hs; try (rewrite Hs; intros; discriminate); try tauto.
  destruct (gt_ws x) as [|r0 l]; [rewrite Hs; discriminate|].
  destruct (N.eqb r0 w) eqn:E; [|rewrite Hs; discriminate].
  apply N.eqb_eq in E; subst. intros _. right. eauto.
Qed.

(** Losing the connected worker [w]: the restorer counts a crash for the records running on [w]
    (a failure only); these are the running tasks rooted at [w], because a task that waits after a
    start has a root that is not connected, hence not [w]. *)
Lemma task_rel_lose ws mw w (f : bool) o x :
  task_rel o x -> task_winv ws mw x -> In w ws ->
  task_rel (option_map (if f then bump_task w else id) o) (g_lose_task w f x).
Proof.
  intros Hrel [_ Wb] Hw. unfold task_rel in Hrel |- *. unfold g_lose_task.
  destruct (gt_last x) as [i|] eqn:Hlast.
  - rewrite Hrel. unfold rstate_of.
    destruct (gt_state x) eqn:Hst; simpl;
      try (rewrite Hlast; unfold rstate_of; rewrite Hst; destruct f; reflexivity).
    + rewrite Hlast. unfold rstate_of. rewrite Hst. destruct f; simpl; [|reflexivity].
      unfold bump_task; simpl. destruct (gt_ws x) as [|r0 l]; [reflexivity|].
      specialize (Wb eq_refl). destruct (N.eqb r0 w) eqn:E; [|reflexivity].
      apply N.eqb_eq in E. subst. contradiction.
    + destruct (gt_ws x) as [|r0 l] eqn:Hws.
      * rewrite Hlast. unfold rstate_of. rewrite Hst, Hws. destruct f; reflexivity.
      * destruct (N.eqb r0 w) eqn:E; simpl.
        -- unfold rstate_of; simpl. destruct f; simpl; unfold bump_task; simpl; try rewrite E; try rewrite Hws; reflexivity.
        -- rewrite Hlast. unfold rstate_of. rewrite Hst, Hws. destruct f; simpl; [|reflexivity].
           unfold bump_task; simpl. now rewrite E.
  - destruct Hrel as [Hc0 Hoo]. destruct (gt_state x) eqn:Hst; try contradiction;
      rewrite Hlast; (split; [assumption|]); rewrite Hst; rewrite Hoo; destruct f; reflexivity.
Qed.

Lemma winv_lose ws mw w f x :
  task_winv ws mw x -> task_winv (filter (fun x => negb (N.eqb x w)) ws) mw (g_lose_task w f x).
Proof.
  intros [Wa Wb]. split; rewrite g_lose_task_ws; [exact Wa|].
  intros Hst. apply g_lose_task_waiting in Hst. destruct Hst as [Hst|[l Hl]].
  - specialize (Wb Hst). destruct (gt_ws x); [exact I|]. rewrite filter_In. tauto.
  - rewrite Hl, filter_In, N.eqb_refl. simpl. intros [_ F]; discriminate.
Qed.

Lemma job_rel_lose ws mw w (f : bool) rj gj :
  job_rel ws mw rj gj -> In w ws ->
  job_rel (filter (fun x => negb (N.eqb x w)) ws) mw (if f then bump_job w rj else rj) (g_lose_job w f gj).
Proof.
  intros Hrel Hw. destruct f.
  - apply (job_rel_map _ _ _ (bump_task w) (g_lose_task w true) _ _ Hrel). intros o x Ho Hx.
    split; [exact (task_rel_lose _ _ w true o x Ho Hx Hw) | now apply winv_lose].
  - apply (job_rel_map_r _ _ _ (g_lose_task w false) _ _ Hrel). intros o x Ho Hx.
    split; [|now apply winv_lose]. generalize (task_rel_lose _ _ w false o x Ho Hx Hw). now destruct o.
Qed.

Lemma sim_lost rs g g' w r :
  Rel rs g -> gstep g (EWorkerLost w r) = Some g' ->
  exists rs', rstep rs (EWorkerLost w r) = Ok rs' /\ Rel rs' g'.
Proof.
  intros HR Hg. simpl in Hg. destruct (memN w (g_workers g)) eqn:Hw; [|discriminate].
  inversion Hg; subst g'. clear Hg. apply memN_in in Hw.
  known_ids HR.
  destruct HR as (H & A1 & A2 & A3 & A4 & A5 & A6 & A7 & A8 & A9 & A10).
  assert (Hws : forall x, In x (filter (fun x => negb (N.eqb x w)) (g_workers g)) -> x <= g_max_worker g)
    by (intros x Hx; apply filter_In in Hx; now apply A8).
  assert (Hk : forall k, In k (keys (List.map (fun kv => (fst kv, g_lose_job w (is_failure r) (snd kv))) (g_jobs g))) ->
                         k <= g_max_job g)
    by (intros k Hk; rewrite (keys_map_values (fun kv => g_lose_job w _ (snd kv))) in Hk; now apply A9).
  simpl. destruct (is_failure r); (eexists; split; [reflexivity|]); unfold Rel; simpl; (split; [|repeat split; assumption]).
  - apply (map_rel_map _ _ (bump_job w) (g_lose_job w true) _ _ H). intros a b Hab. exact (job_rel_lose _ _ w true a b Hab Hw).
  - apply (map_rel_map_r _ _ (g_lose_job w false) _ _ H). intros a b Hab. exact (job_rel_lose _ _ w false a b Hab Hw).
Qed.

Lemma sim_connected rs g g' w alloc :
  Rel rs g -> gstep g (EWorkerConnected w alloc) = Some g' ->
  exists rs', rstep rs (EWorkerConnected w alloc) = Ok rs' /\ Rel rs' g'.
Proof.
  intros HR Hg. simpl in Hg. destruct (g_max_worker g <? w) eqn:Hlt; [|discriminate].
  inversion Hg; subst g'. clear Hg. apply N.ltb_lt in Hlt.
  destruct HR as (H & A1 & A2 & A3 & A4 & A5 & A6 & A7 & A8 & A9 & A10).
  eexists. split; [reflexivity|]. unfold Rel, update_max_ids; simpl.
  split.
  - eapply map_rel_impl; [exact H|]. intros rj gj (Ho & Hs & Ht & Hwf & Hwi).
    unfold job_rel. repeat (split; [assumption|]). intros t x Hl. destruct (Hwi t x Hl) as [Wa Wb].
    split; [intros w0 Hw0; specialize (Wa w0 Hw0); lia|].
    intros Hst. specialize (Wb Hst). destruct (gt_ws x) as [|r0 l] eqn:E; [exact I|].
    simpl. intros [F|F]; [|contradiction]. subst. specialize (Wa r0 (or_introl eq_refl)). lia.
  - rewrite A4, A5. repeat split; try assumption; try (simpl; lia).
    intros w0 [<-|Hw0]; [lia|]. specialize (A8 w0 Hw0). lia.
Qed.

Lemma task_restart ws mw o x :
  task_rel o x -> task_winv ws mw x -> task_rel o (g_restart_task x) /\ task_winv [] mw (g_restart_task x).
Proof.
  intros Hrel [Wa Wb]. unfold g_restart_task.
  destruct (gt_state x) eqn:Hst;
    try (split; [exact Hrel | split; [exact Wa | rewrite Hst; discriminate]]).
  - split; [exact Hrel | split; [exact Wa | intros _; destruct (gt_ws x); [exact I | tauto]]].
  - split; [|split; simpl; [exact Wa | intros _; destruct (gt_ws x); [exact I | tauto]]].
    unfold task_rel in *; simpl. destruct (gt_last x); [|rewrite Hst in Hrel; destruct Hrel as [_ []]].
    rewrite Hrel. unfold rstate_of; simpl. now rewrite Hst.
Qed.

Lemma sim_restart rs g g' u :
  Rel rs g -> gstep g (EServerStart u) = Some g' ->
  exists rs', rstep rs (EServerStart u) = Ok rs' /\ Rel rs' g'.
Proof.
  intros HR Hg. simpl in Hg. destruct (match g_uid g with Some u' => u =? u' | None => true end); [|discriminate].
  inversion Hg; subst g'. clear Hg.
  known_ids HR.
  destruct HR as (H & A1 & A2 & A3 & A4 & A5 & A6 & A7 & A8 & A9 & A10).
  eexists. split; [reflexivity|]. unfold Rel; simpl.
  split.
  - apply (map_rel_map_r _ _ g_restart_job _ _ H). intros rj gj Hrel.
    apply (job_rel_map_r _ [] _ g_restart_task _ _ Hrel). intros o x. apply task_restart.
  - repeat split; try assumption; try tauto.
    intros k Hk. rewrite (keys_map_values (fun kv => g_restart_job (snd kv))) in Hk. now apply A9.
Qed.

Lemma Rel_queue rs g q : Rel rs g -> mem q (g_queues g) = true -> q <= g_max_queue g.
Proof.
  intros (_ & _ & _ & _ & _ & _ & _ & _ & _ & _ & Kq) Hm. apply Kq.
  unfold mem in Hm. destruct (lookup q (g_queues g)) eqn:E; [|discriminate]. now apply lookup_some_keys in E.
Qed.

Lemma step_sim rs g g' e :
  Rel rs g -> gstep g e = Some g' -> exists rs', rstep rs e = Ok rs' /\ Rel rs' g'.
Proof.
  intros HR Hg. destruct e; try (simpl in Hg; injection Hg as <-).
  - eapply sim_submit; eassumption.
  - simpl in Hg. destruct (g_max_job g <? j) eqn:Hlt; [|discriminate]. inversion Hg; subst g'. apply N.ltb_lt in Hlt.
    eexists. split; [reflexivity|]. unfold rstep. simpl rstep_arm. apply Rel_new_job; [assumption | assumption|].
    apply job_rel_empty.
  - simpl in Hg. destruct (lookup j (g_jobs g)) as [gj|] eqn:Hj; [|discriminate].
    destruct (gj_open gj); [|discriminate]. inversion Hg; subst g'.
    destruct (Rel_jobs rs g j gj HR Hj) as (rj & Hrj & (Ho & Hs & Ht & Hwf & Hw)).
    known_ids HR.
    simpl. rewrite Hrj. eexists. split; [reflexivity|].
    eapply Rel_upd_job; try eassumption. unfold job_rel; simpl. tauto.
  - simpl in Hg. destruct (lookup j (g_jobs g)) as [gj|] eqn:Hj; [|discriminate].
    destruct (job_terminated gj); [|discriminate]. inversion Hg; subst g'.
    known_ids HR.
    simpl. eexists. split; [reflexivity|].
    destruct HR as (H & A1 & A2 & A3 & A4 & A5 & A6 & A7 & A8 & A9 & A10).
    unfold Rel, set_jobs, g_set_jobs; simpl. split; [now apply map_rel_remove|].
    repeat split; try assumption. intros k Hk. apply in_keys_remove in Hk. now apply A9.
  - simpl in Hg. destruct (lookup j (g_jobs g)) as [gj|] eqn:Hj; [|discriminate].
    destruct (job_active gj); [|discriminate]. inversion Hg; subst g'.
    destruct (Rel_jobs rs g j gj HR Hj) as (rj & Hrj & _).
    known_ids HR.
    simpl. rewrite Hrj. eauto.
  - eapply sim_started; eassumption.
  - eapply sim_finished; eassumption.
  - eapply sim_failed; eassumption.
  - exact (sim_batch GCanceled ETasksCanceled rs g g' ids0 HR eq_refl eq_refl eq_refl eq_refl eq_refl Hg).
  - exact (sim_batch GAborted ETasksAborted rs g g' ids0 HR eq_refl eq_refl eq_refl eq_refl eq_refl Hg).
  - eapply sim_connected; eassumption.
  - eapply sim_lost; eassumption.
  - simpl in Hg. destruct (memN w (g_workers g)) eqn:Hw; [|discriminate]. inversion Hg; subst g'. apply memN_in in Hw.
    known_ids HR.
    exists rs. split; [reflexivity | assumption].
  - simpl in Hg. destruct (g_max_queue g <? q) eqn:Hlt; [|discriminate]. inversion Hg; subst g'. apply N.ltb_lt in Hlt.
    pose proof (Rel_queue rs g q HR) as Hq.
    destruct HR as (H & A1 & A2 & A3 & A4 & A5 & A6 & A7 & A8 & A9 & A10).
    unfold rstep. simpl. rewrite A6. destruct (mem q (g_queues g)); [specialize (Hq eq_refl); lia|].
    eexists. split; [reflexivity|]. unfold Rel; simpl.
    repeat split; try assumption; try (simpl; lia).
    intros k Hk. apply in_keys_insert in Hk. destruct Hk as [->|Hk]; [lia|]. specialize (A10 k Hk). lia.
  - simpl in Hg. destruct (mem q (g_queues g)) eqn:Hm; [|discriminate]. inversion Hg; subst g'.
    pose proof (Rel_queue rs g q HR Hm) as Hq.
    known_ids HR.
    destruct HR as (H & A1 & A2 & A3 & A4 & A5 & A6 & A7 & A8 & A9 & A10).
    eexists. split; [reflexivity|]. unfold Rel; simpl. rewrite A6.
    repeat split; try assumption. intros k Hk. apply in_keys_remove in Hk. now apply A10.
  - simpl in Hg. destruct (mem q (g_queues g)) eqn:Hm; [|discriminate]. inversion Hg; subst g'.
    pose proof (Rel_queue rs g q HR Hm) as Hq.
    known_ids HR.
    destruct HR as (H & A1 & A2 & A3 & A4 & A5 & A6 & A7 & A8 & A9 & A10).
    eexists. split; [reflexivity|]. unfold Rel; simpl. rewrite A5.
    repeat split; assumption.
  - simpl in Hg. destruct (q <=? g_max_queue g) eqn:Hq; [|discriminate]. inversion Hg; subst g'. apply N.leb_le in Hq.
    known_ids HR.
    exists rs. split; [reflexivity | assumption].
  - simpl in Hg. destruct (q <=? g_max_queue g) eqn:Hq; [|discriminate]. inversion Hg; subst g'. apply N.leb_le in Hq.
    known_ids HR.
    exists rs. split; [reflexivity | assumption].
  - eapply sim_restart; eassumption.
  - known_ids HR.
    exists rs. split; [reflexivity | assumption].
Qed.

Lemma load_sim evs : forall rs g g',
  Rel rs g -> grun g evs = Some g' -> exists rs', load rs evs = Ok rs' /\ Rel rs' g'.
Proof.
  induction evs as [|e evs IH]; intros rs g g' HR Hg; simpl in *.
  - inversion Hg; subst. eauto.
  - destruct (gstep g e) as [g1|] eqn:E; [|discriminate].
    destruct (step_sim rs g g1 e HR E) as (rs1 & Hs & HR1). rewrite Hs. eapply IH; eassumption.
Qed.

Definition batches_of (jid : N) (rt : map RTask) (subs : list (list TaskSpec)) : list Batch :=
  flat_map (fun sub => match retain_tasks rt sub with [] => [] | nt => [mkB jid nt (batch_adjust rt nt)] end) subs.

Lemma restore_submits_spec jid rt subs : forall tasks out n,
  restore_submits jid rt (tasks, out, n) subs =
  match attach_subs tasks subs with
  | Some t' => Ok (t', out ++ batches_of jid rt subs, n + N.of_nat (length subs))
  | None => Disabled
  end.
Proof.
  induction subs as [|sub subs IH]; intros tasks out n; simpl.
  - rewrite app_nil_r. f_equal. f_equal. lia.
  - destruct (validate tasks sub); simpl; [|reflexivity]. rewrite IH.
    destruct (attach_subs (attach tasks sub) subs); [|reflexivity].
    f_equal. f_equal; [f_equal|lia].
    destruct (retain_tasks rt sub); simpl; [reflexivity | now rewrite <- app_assoc].
Qed.

Definition adj_of (rt : map RTask) (t : N) : option (N * N) :=
  match lookup t rt with Some r => adjust_of r | None => None end.

Lemma lookup_batch_adjust_gen rt nt : forall acc t,
  lookup t (fold_left (fun a t => match lookup (bt_id t) rt with
                        | Some x => match adjust_of x with Some v => insert (bt_id t) v a | None => a end
                        | None => a
                        end) nt acc) =
  if memN t (List.map bt_id nt)
  then match adj_of rt t with Some v => Some v | None => lookup t acc end
  else lookup t acc.
Proof.
  induction nt as [|a nt IH]; intros acc t; simpl; [reflexivity|].
  rewrite IH. unfold adj_of. destruct (N.eqb t (bt_id a)) eqn:E; simpl.
  - apply N.eqb_eq in E. subst t.
    destruct (lookup (bt_id a) rt) as [x|]; [|now destruct (memN (bt_id a) (List.map bt_id nt))].
    destruct (adjust_of x) as [v|]; [|now destruct (memN (bt_id a) (List.map bt_id nt))].
    rewrite lookup_insert_eq. now destruct (memN (bt_id a) (List.map bt_id nt)).
  - assert (Hl : forall v, lookup t (insert (bt_id a) v acc) = lookup t acc)
      by (intros v; apply lookup_insert_neq; apply N.eqb_neq; exact E).
    destruct (lookup (bt_id a) rt) as [x|]; [|reflexivity].
    destruct (adjust_of x) as [v|]; [|reflexivity]. now rewrite Hl.
Qed.

Lemma batch_view_adjust jid rt nt :
  batch_view (mkB jid nt (batch_adjust rt nt)) = (jid, List.map (fun t => (bt_id t, bt_deps t, adj_of rt (bt_id t))) nt).
Proof.
  unfold batch_view; simpl. f_equal. apply map_ext_in. intros t Hin. f_equal.
  unfold batch_adjust. rewrite lookup_batch_adjust_gen. simpl.
  assert (Hm : memN (bt_id t) (List.map bt_id nt) = true) by (apply memN_in; now apply in_map).
  rewrite Hm. now destruct (adj_of rt (bt_id t)).
Qed.

Section JobFinish.
  Variables (rt : map RTask) (gt : map GTask).
  Hypothesis Hrel : tasks_rel rt gt.

  Lemma completed_terminal t : is_task_completed rt t = g_task_terminal gt t.
  Proof.
    unfold is_task_completed, g_task_terminal. specialize (Hrel t).
    destruct (lookup t gt) as [x|]; [|now rewrite Hrel].
    unfold task_rel in Hrel. destruct (gt_last x).
    - rewrite Hrel. simpl. unfold rstate_of. now destruct (gt_state x).
    - destruct Hrel as [_ H]. destruct (gt_state x); try contradiction; rewrite H; reflexivity.
  Qed.

  Lemma adj_abs t : adj_of rt t = abs_adjust gt t.
  Proof.
    unfold adj_of, abs_adjust. specialize (Hrel t).
    destruct (lookup t gt) as [x|]; [|now rewrite Hrel].
    unfold task_rel in Hrel. destruct (gt_last x).
    - rewrite Hrel. unfold adjust_of; simpl. now rewrite Bool.orb_true_r.
    - destruct Hrel as [Hc H]. rewrite Hc. simpl.
      destruct (gt_state x); try contradiction; rewrite H; reflexivity.
  Qed.

  Lemma retain_abs sub :
    List.map (fun t => (bt_id t, bt_deps t, adj_of rt (bt_id t))) (retain_tasks rt sub) = abs_batch gt sub.
  Proof.
    unfold retain_tasks, abs_batch. induction sub as [|ts sub IH]; simpl; [reflexivity|].
    rewrite completed_terminal. destruct (g_task_terminal gt (ts_id ts)); simpl; [exact IH|].
    rewrite IH, adj_abs. f_equal. f_equal. f_equal. apply filter_ext. intros d. now rewrite completed_terminal.
  Qed.

  Lemma batches_abs jid subs :
    List.map batch_view (batches_of jid rt subs) =
    flat_map (fun sub => match abs_batch gt sub with [] => [] | b => [(jid, b)] end) subs.
  Proof.
    unfold batches_of. induction subs as [|sub subs IH]; simpl; [reflexivity|].
    rewrite map_app, IH. f_equal. rewrite <- retain_abs.
    destruct (retain_tasks rt sub) as [|a l] eqn:E; [reflexivity|].
    cbn [List.map]. rewrite batch_view_adjust. reflexivity.
  Qed.

  Lemma elem_state k x :
    task_rel (lookup k rt) x ->
    match lookup k rt with
    | Some r => if completed (rt_state r) then (k, rt_state r) else (k, TWaiting)
    | None => (k, TWaiting)
    end = (k, gclass (gt_state x))
    /\ forall c, match lookup k rt with Some r => bump_counter c (rt_state r) | None => c end
                 = bump_counter c (gclass (gt_state x)).
  Proof.
    unfold task_rel. destruct (gt_last x).
    - intros ->. simpl. unfold rstate_of. destruct (gt_state x); simpl; split; reflexivity.
    - intros [_ H]. destruct (gt_state x); try contradiction; rewrite H; simpl; split; reflexivity.
  Qed.

  Lemma loops_abs (l : map GTask) :
    Forall (fun kv => task_rel (lookup (fst kv) rt) (snd kv)) l ->
    loop_states rt (waiting_map (keys l)) = List.map (fun tv => (fst tv, gclass (gt_state (snd tv)))) l
    /\ forall c, loop_counters rt (waiting_map (keys l)) c
                 = fold_left (fun c kv => bump_counter c (gclass (gt_state (snd kv)))) l c.
  Proof.
    induction 1 as [|[k x] l Hx _ IH]; simpl; [split; reflexivity|].
    destruct (elem_state k x Hx) as [E1 E2]. destruct IH as [I1 I2]. split.
    - unfold loop_states in *. simpl. rewrite I1. f_equal.
      destruct (lookup k rt) as [r|]; [|exact E1]. destruct (completed (rt_state r)); exact E1.
    - intros c. unfold loop_counters in *. simpl. rewrite E2. apply I2.
  Qed.
End JobFinish.

Lemma restore_job_abs ws mw jid rj gj :
  job_rel ws mw rj gj ->
  exists bs, restore_job jid rj = Ok (abs_job (jid, gj), bs)
             /\ List.map batch_view bs = abs_batches (jid, gj).
Proof.
  intros (Ho & Hs & Ht & (Hnd & Hat) & _). unfold restore_job.
  rewrite restore_submits_spec, Hs, Hat. eexists. split; [|simpl; apply (batches_abs _ _ Ht)].
  assert (HF : Forall (fun kv => task_rel (lookup (fst kv) (rj_tasks rj)) (snd kv)) (gj_tasks gj)).
  { apply Forall_forall. intros [k x] Hin. simpl. pose proof (in_lookup k x _ Hnd Hin) as Hl.
    specialize (Ht k). now rewrite Hl in Ht. }
  destruct (loops_abs _ (gj_tasks gj) HF) as [L1 L2].
  unfold abs_job, abs_counters. rewrite L1, L2, Ho. simpl. reflexivity.
Qed.

Lemma restore_jobs_abs ws mw rjs gjs :
  map_rel (job_rel ws mw) rjs gjs ->
  exists bs, restore_jobs rjs = Ok (List.map abs_job gjs, bs)
             /\ List.map batch_view bs = flat_map abs_batches gjs.
Proof.
  induction 1 as [|[j rj] [j' gj] l1 l2 [Hk Hj] _ IH]; simpl in *.
  - exists []. split; reflexivity.
  - subst j'. destruct (restore_job_abs ws mw j rj gj Hj) as (bs & E & Hb). rewrite E.
    destruct IH as (bss & E' & Hb'). rewrite E'. exists (bs ++ bss). split; [reflexivity|].
    rewrite map_app, Hb, Hb'. reflexivity.
Qed.

(** ** C10: the two theorems *)

Theorem restore_refines : forall evs g,
  grun g0 evs = Some g -> exists r, restore evs = Ok r /\ view r = abs g.
Proof.
  intros evs g Hg. destruct (load_sim evs rs0 g0 g Rel0 Hg) as (rs & Hl & HR).
  unfold restore. rewrite Hl. unfold finish.
  destruct HR as (H & A1 & A2 & A3 & A4 & A5 & A6 & A7 & _).
  destruct (restore_jobs_abs _ _ _ _ H) as (bs & E & Hb). rewrite E.
  eexists. split; [reflexivity|]. unfold view, abs; simpl.
  rewrite Hb, A1, A2, A3, A4, A6, A7. reflexivity.
Qed.

Theorem restore_total : forall evs k g,
  grun g0 evs = Some g -> exists r, restore (firstn k evs) = Ok r.
Proof.
  intros evs k g Hg.
  assert (Hp : exists g', grun g0 (firstn k evs) = Some g').
  { clear - Hg. revert k g Hg. generalize g0. induction evs as [|e evs IH]; intros s k g Hg; destruct k; simpl in *; eauto.
    destruct (gstep s e) as [s1|]; [|discriminate]. eapply IH; eassumption. }
  destruct Hp as [g' Hg']. destruct (restore_refines _ _ Hg') as (r & Hr & _). eauto.
Qed.

(** The counters of a restored job never exceed its task count: [n_waiting_tasks] cannot underflow. *)
Lemma c_sum_bump c s : c_sum (bump_counter c s) <= c_sum c + 1.
Proof. destruct c, s; unfold c_sum; simpl; lia. Qed.

Lemma c_sum_fold (l : map GTask) : forall c,
  c_sum (fold_left (fun c kv => bump_counter c (gclass (gt_state (snd kv)))) l c) <= c_sum c + N.of_nat (length l).
Proof.
  induction l as [|kv l IH]; intros c; simpl length; cbn [fold_left]; [lia|].
  specialize (IH (bump_counter c (gclass (gt_state (snd kv))))).
  pose proof (c_sum_bump c (gclass (gt_state (snd kv)))). lia.
Qed.

Theorem restore_counters_safe : forall evs g r,
  grun g0 evs = Some g -> restore evs = Ok r ->
  forall j, In j (r_jobs r) -> exists n, n_waiting j = Ok n.
Proof.
  intros evs g r Hg Hr j Hin. destruct (restore_refines evs g Hg) as (r' & Hr' & Hv).
  rewrite Hr in Hr'. inversion Hr'; subst r'. clear Hr'.
  assert (Hj : r_jobs r = List.map abs_job (g_jobs g)) by (unfold view, abs in Hv; now inversion Hv).
  rewrite Hj in Hin. apply in_map_iff in Hin. destruct Hin as [[jid gj] [<- _]].
  unfold n_waiting, abs_job, n_tasks; simpl. rewrite map_length.
  pose proof (c_sum_fold (gj_tasks gj) c0) as Hc. unfold abs_counters.
  change (c_sum c0) with 0 in Hc.
  destruct (c_sum _ <=? N.of_nat (length (gj_tasks gj))) eqn:E; [eauto|].
  apply N.leb_gt in E. lia.
Qed.

(** Non-vacuity: a history with two submits into an open job, a failure before start, a crash of a
    running task with its worker, a restart of the task, a cancel and a server restart is
    producible, and [restore] reproduces its abstraction. *)
Definition example_journal : list Event :=
  [ EServerStart 7; EJobOpen 1;
    ESubmit 1 false [mkTS 0 (CMax 5) []; mkTS 1 (CMax 5) []];
    EWorkerConnected 1 None; ETaskStarted 1 0 0 [1]; ETaskFinished 1 0;
    ESubmit 1 false [mkTS 2 CNever [0]; mkTS 3 CUnlimited [2]];
    ETaskFailed 1 1;
    ETaskStarted 1 2 0 [1]; EWorkerLost 1 RConnLost;
    EWorkerConnected 2 None; ETaskStarted 1 2 1 [2];
    ESubmit 2 true [mkTS 0 (CMax 1) []]; EJobCancel 2; ETasksCanceled [(2, 0)]; EJobCompleted 2;
    EServerStart 7 ].

Example example_producible : exists g, grun g0 example_journal = Some g /\ length (g_jobs g) = 1%nat.
Proof. eexists. split; vm_compute; reflexivity. Qed.

Example example_restored :
  exists r, restore example_journal = Ok r
            /\ List.map batch_view (r_batches r) = [(1, [(2, [], Some (2, 1)); (3, [2], None)])]
            /\ List.map sj_counters (r_jobs r) = [mkC 0 1 1 0 0].
Proof. eexists. split; [vm_compute; reflexivity | split; reflexivity]. Qed.
