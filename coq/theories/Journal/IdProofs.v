(** C11: the restored id counters exceed every id of their kind mentioned anywhere in the journal
    (for ANY event list), and the server uid is the one of the last ServerStart record. *)
From HQ Require Import Base.Prelude Journal.Event Journal.Maps Journal.Restore.
Require Import ZifyBool ZifyN.
Open Scope N_scope.
Arguments N.add : simpl never.
Arguments N.max : simpl never.

Definition last_uid_from (u : option N) (evs : list Event) : option N :=
  fold_left (fun acc e => match e with EServerStart x => Some x | _ => acc end) evs u.
Definition last_uid (evs : list Event) : option N := last_uid_from None evs.

(** A record keyed by a job reads the entry of that job only, and does one of four things to the state. *)
Inductive jop := Keep | Put (rj : RJob) | New (rj : RJob) | Del.

Definition run_jop (j : N) (o : jop) (s : RS) : RS :=
  match o with
  | Keep => s
  | Put rj => upd_job s j rj
  | New rj => add_job s j rj
  | Del => set_jobs s (remove j (rs_jobs s))
  end.

Definition job_key (e : Event) : option N :=
  match e with
  | ESubmit j _ _ | EJobOpen j | EJobClose j | EJobCompleted j | EJobCancel j
  | ETaskStarted j _ _ _ | ETaskFinished j _ | ETaskFailed j _ => Some j
  | _ => None
  end.

Lemma arm_jop s p e j s' :
  job_key e = Some j -> lookup j (rs_jobs p) = lookup j (rs_jobs s) -> rstep_arm s e = Ok s' ->
  exists o, s' = run_jop j o s /\ rstep_arm p e = Ok (run_jop j o p).
Proof.
  intros Hk Hp Hs. destruct e; try discriminate; injection Hk as ->; simpl in *; rewrite ?Hp.
  - (* Submit *)
    destruct closed; [|destruct (lookup j (rs_jobs s))]; injection Hs as <-;
      [eexists (New _) | eexists (Put _) | exists Keep]; split; reflexivity.
  - injection Hs as <-. eexists (New _). split; reflexivity.
  - destruct (lookup j (rs_jobs s)); [|discriminate]. injection Hs as <-. eexists (Put _). split; reflexivity.
  - injection Hs as <-. exists Del. split; reflexivity.
  - destruct (lookup j (rs_jobs s)); [|discriminate]. injection Hs as <-. exists Keep. split; reflexivity.
  - destruct (lookup j (rs_jobs s)); injection Hs as <-; [eexists (Put _) | exists Keep]; split; reflexivity.
  - (* TaskFinished: written back only for a running record *)
    destruct (lookup j (rs_jobs s)) as [rj|]; [|injection Hs as <-; exists Keep; split; reflexivity].
    destruct (lookup t (rj_tasks rj)) as [rt|]; [|discriminate]. destruct (rt_state rt); try discriminate.
    injection Hs as <-. eexists (Put _). split; reflexivity.
  - (* TaskFailed: written back unless the record is completed *)
    destruct (lookup j (rs_jobs s)) as [rj|]; [|injection Hs as <-; exists Keep; split; reflexivity].
    destruct (lookup t (rj_tasks rj)) as [rt|]; [destruct (rt_state rt); try discriminate|];
      injection Hs as <-; eexists (Put _); split; reflexivity.
Qed.

Lemma term_one_jop term s p j t :
  lookup j (rs_jobs p) = lookup j (rs_jobs s) ->
  exists o, term_one term s (j, t) = run_jop j o s /\ term_one term p (j, t) = run_jop j o p.
Proof.
  intros Hp. unfold term_one. rewrite Hp. destruct (lookup j (rs_jobs s)) as [rj|]; [|exists Keep; split; reflexivity].
  destruct (lookup t (rj_tasks rj)); eexists (Put _); split; reflexivity.
Qed.

Lemma term_one_frame term s id :
  rs_max_job (term_one term s id) = rs_max_job s /\ rs_max_worker (term_one term s id) = rs_max_worker s
  /\ rs_max_queue (term_one term s id) = rs_max_queue s /\ rs_uid (term_one term s id) = rs_uid s.
Proof.
  unfold term_one. destruct id as [j t].
  destruct (lookup j (rs_jobs s)) as [rj|]; [|tauto].
  destruct (lookup t (rj_tasks rj)); simpl; tauto.
Qed.

Lemma fold_term_one_frame term ids : forall s,
  let s' := fold_left (term_one term) ids s in
  rs_max_job s' = rs_max_job s /\ rs_max_worker s' = rs_max_worker s
  /\ rs_max_queue s' = rs_max_queue s /\ rs_uid s' = rs_uid s.
Proof.
  induction ids as [|id ids IH]; intros s; simpl; [tauto|].
  destruct (IH (term_one term s id)) as (-> & -> & -> & ->). apply term_one_frame.
Qed.

Lemma rstep_arm_frame s e s' :
  rstep_arm s e = Ok s' ->
  rs_max_job s <= rs_max_job s' /\ rs_max_worker s <= rs_max_worker s' /\ rs_max_queue s <= rs_max_queue s'
  /\ rs_uid s' = match e with EServerStart u => Some u | _ => rs_uid s end.
Proof.
  intros H. destruct (job_key e) as [j|] eqn:Hk.
  - (* a job record: one of the four operations, none of which lowers a mark or touches the uid *)
    destruct (arm_jop s s e j s' Hk eq_refl H) as (o & -> & _).
    replace (match e with EServerStart u => Some u | _ => rs_uid s end) with (rs_uid s) by now destruct e.
    destruct o; simpl; repeat split; (lia || reflexivity).
  - destruct e; try discriminate; simpl in H.
    1: destruct (fold_term_one_frame TCanceled ids s) as (Ej & Ew & Eq & Eu).
    2: destruct (fold_term_one_frame TAborted ids s) as (Ej & Ew & Eq & Eu).
    4: destruct (is_failure r).
    7: destruct (mem q (rs_queues s)); [discriminate|].
    all: injection H as <-; simpl; repeat split; (lia || assumption || reflexivity).
Qed.

Lemma rstep_frame s e s' :
  rstep s e = Ok s' ->
  N.max (rs_max_job s) (list_max (ev_job_ids e)) <= rs_max_job s'
  /\ N.max (rs_max_worker s) (list_max (ev_worker_ids e)) <= rs_max_worker s'
  /\ N.max (rs_max_queue s) (list_max (ev_queue_ids e)) <= rs_max_queue s'
  /\ rs_uid s' = match e with EServerStart u => Some u | _ => rs_uid s end.
Proof.
  unfold rstep. intros H. apply rstep_arm_frame in H. simpl in H. exact H.
Qed.

Lemma load_ids s evs s' :
  load s evs = Ok s' ->
  rs_max_job s <= rs_max_job s' /\ rs_max_worker s <= rs_max_worker s' /\ rs_max_queue s <= rs_max_queue s'
  /\ rs_uid s' = last_uid_from (rs_uid s) evs
  /\ forall e, In e evs ->
       (forall j, In j (ev_job_ids e) -> j <= rs_max_job s')
       /\ (forall w, In w (ev_worker_ids e) -> w <= rs_max_worker s')
       /\ (forall q, In q (ev_queue_ids e) -> q <= rs_max_queue s').
Proof.
  revert s. induction evs as [|e evs IH]; intros s H; simpl in H.
  - inversion H; subst. unfold last_uid_from; simpl. repeat split; try lia; contradiction.
  - destruct (rstep s e) as [s1| |] eqn:E; try discriminate.
    apply rstep_frame in E. destruct E as (Ej & Ew & Eq & Eu).
    apply IH in H. destruct H as (Hj & Hw & Hq & Hu & Hall).
    repeat split; try lia.
    1: rewrite Hu, Eu; unfold last_uid_from; simpl; now destruct e.
    (* the ids of [e] itself, of each of the three kinds, are below the mark [rstep] has just raised *)
    all: destruct H as [<-|Hin]; [|now apply Hall]; intros x Hx; apply list_max_ge in Hx; lia.
Qed.

Lemma restore_inv evs r :
  restore evs = Ok r ->
  exists s, load rs0 evs = Ok s /\ r_job_counter r = rs_max_job s + 1 /\ r_worker_counter r = rs_max_worker s + 1
            /\ r_queue_counter r = rs_max_queue s + 1 /\ r_uid r = rs_uid s.
Proof.
  unfold restore. destruct (load rs0 evs) as [s| |]; try discriminate.
  unfold finish. destruct (restore_jobs (rs_jobs s)) as [[jobs bs]| |]; try discriminate.
  intros H; inversion H; subst; simpl. exists s. repeat split.
Qed.

(** The next job id is [r_job_counter], the next worker id [r_worker_counter + 1] (tako increments
    before use), the next queue id [r_queue_counter]. *)
Theorem ids_fresh : forall evs r,
  restore evs = Ok r ->
  forall e, In e evs ->
    (forall j, In j (ev_job_ids e) -> j < r_job_counter r)
    /\ (forall w, In w (ev_worker_ids e) -> w < r_worker_counter r + 1)
    /\ (forall q, In q (ev_queue_ids e) -> q < r_queue_counter r).
Proof.
  intros evs r H e Hin. apply restore_inv in H. destruct H as (s & Hl & Hj & Hw & Hq & _).
  apply load_ids in Hl. destruct Hl as (_ & _ & _ & _ & Hall).
  destruct (Hall e Hin) as (A & B & C).
  repeat split; intros x Hx; [apply A in Hx | apply B in Hx | apply C in Hx]; lia.
Qed.

Theorem uid_kept : forall evs r, restore evs = Ok r -> r_uid r = last_uid evs.
Proof.
  intros evs r H. apply restore_inv in H. destruct H as (s & Hl & _ & _ & _ & Hu).
  apply load_ids in Hl. destruct Hl as (_ & _ & _ & Hu' & _). rewrite Hu, Hu'. reflexivity.
Qed.

(** Over repeated restarts: a journal extended after a restart keeps all bounds (the counters only grow). *)
Theorem ids_monotone_append : forall evs evs' r r',
  restore evs = Ok r -> restore (evs ++ evs') = Ok r' ->
  r_job_counter r <= r_job_counter r' /\ r_worker_counter r <= r_worker_counter r'
  /\ r_queue_counter r <= r_queue_counter r'.
Proof.
  intros evs evs' r r' H H'.
  apply restore_inv in H. destruct H as (s & Hl & Hj & Hw & Hq & _).
  apply restore_inv in H'. destruct H' as (s' & Hl' & Hj' & Hw' & Hq' & _).
  assert (Hs : load s evs' = Ok s').
  { clear - Hl Hl'. revert Hl Hl'. generalize rs0. induction evs as [|e evs IH]; intros s0 Hl Hl'; simpl in *.
    - inversion Hl; subst. exact Hl'.
    - destruct (rstep s0 e); try discriminate. eapply IH; eassumption. }
  apply load_ids in Hs. destruct Hs as (A & B & C & _). lia.
Qed.

Example ids_fresh_example :
  exists r, restore [EServerStart 3; ETaskStarted 5 0 0 [9]; EWorkerLost 7 RStopped; EQueueRemoved 4; EJobCompleted 6] = Ok r
            /\ r_job_counter r = 7 /\ r_worker_counter r = 10 /\ r_queue_counter r = 5 /\ r_uid r = Some 3.
Proof. eexists. split; [vm_compute; reflexivity | repeat split]. Qed.
