(** C02 wake-up discipline, per-operation analysis (part 3): [OpCancel].

    [on_cancel_tasks] asks for scheduling in every arm except the Prefilled one (witness W3 of
    WakeWitness.v).  So a cancel leaves the flag SET as soon as one task it finds in the core is
    not Prefilled; the only cancels that can leave the flag off are the QUIET ones
    ([cancel_quiet]: every live task of the job that the core knows is Prefilled - or none is
    known).  The check of [OpCancel] is needed for quiet cancels only. *)
From HQ Require Import Base.Prelude Cluster.Types Cluster.Core Cluster.Reactor Cluster.Server Cluster.Sys Cluster.BijSt Cluster.BijFinal Cluster.InvQStep Cluster.InvBundle Cluster.NoPanicU0 Cluster.NoFresh Cluster.StartFin2 Cluster.RestU1 Cluster.StepShape Cluster.Wake Cluster.WakeStep Cluster.WakeRest Cluster.WakeSubmit.
From Coq Require Import ZArith.
Local Open Scope N_scope.

Definition is_prefilled_or_absent (c : core) (id : tid) : bool :=
  match find_task (c_tasks c) id with
  | Some t => match t_state t with Prefilled _ => true | _ => false end
  | None => true
  end.

Lemma remove_task_flag c id c' st : remove_task c id = Ok (c', st) -> c_flag c' = c_flag c.
Proof.
  unfold remove_task. destruct (find_task (c_tasks c) id) as [t|]; [|discriminate].
  destruct (t_state t) as [n| | | | | |]; intros H; try (inversion H; reflexivity).
  apply bind_ok in H. destruct H as (c2 & H2 & H).
  assert (F2 : c_flag c2 = c_flag c).
  { destruct (N.eqb n 0); [|inversion H2; reflexivity].
    apply bind_ok in H2. destruct H2 as (q & _ & H2). apply bind_ok in H2. destruct H2 as (q' & _ & H2). inversion H2; reflexivity. }
  destruct (N.ltb 0 n).
  - apply bind_ok in H. destruct H as (ts & _ & H). inversion H; subst. exact F2.
  - inversion H; subst. exact F2.
Qed.

Lemma remove_tasks_batched_flag ids : forall c c', remove_tasks_batched c ids = Ok c' -> c_flag c' = c_flag c.
Proof.
  induction ids as [|id r IH]; cbn [remove_tasks_batched]; intros c c' H; [inversion H; reflexivity|].
  apply bind_ok in H. destruct H as ([c1 st] & H1 & H). rewrite (IH _ _ H). exact (remove_task_flag _ _ _ _ H1).
Qed.

Lemma try_remove_redirection_frame c t c' : try_remove_redirection c t = Ok c' -> c_tasks c' = c_tasks c /\ c_flag c' = c_flag c.
Proof.
  unfold try_remove_redirection. destruct (find_redirect (c_redirects c) (t_id t)) as [[w rv]|]; intros H.
  - apply bind_ok in H. destruct H as (wk & _ & H). apply bind_ok in H. destruct H as (rq & _ & H). apply bind_ok in H. destruct H as (wk' & _ & H).
    inversion H. split; reflexivity.
  - apply bind_ok in H. destruct H as (q & _ & H). apply bind_ok in H. destruct H as (q' & _ & H). inversion H. split; reflexivity.
Qed.

Lemma reset_mn_all_frame l : forall c c', reset_mn_all c l = Ok c' -> c_tasks c' = c_tasks c /\ c_flag c' = c_flag c.
Proof.
  induction l as [|w r IH]; cbn [reset_mn_all]; intros c c' H; [inversion H; split; reflexivity|].
  apply bind_ok in H. destruct H as (wk & _ & H). destruct (IH _ _ H) as [A B]. rewrite A, B. split; reflexivity.
Qed.

Lemma is_pa_tasks c c' id : c_tasks c' = c_tasks c -> is_prefilled_or_absent c' id = is_prefilled_or_absent c id.
Proof. unfold is_prefilled_or_absent. intros ->. reflexivity. Qed.

Lemma existsb_pa_tasks c c' ids : c_tasks c' = c_tasks c ->
  existsb (fun id => negb (is_prefilled_or_absent c' id)) ids = existsb (fun id => negb (is_prefilled_or_absent c id)) ids.
Proof. intros E. induction ids as [|h t IH]; cbn [existsb]; [reflexivity|]. rewrite IH, (is_pa_tasks _ _ _ E). reflexivity. Qed.

Lemma cancel_release_flag ids : forall s u r s1 u1 r1,
  cancel_release s ids u r = Ok (s1, u1, r1) ->
  c_tasks (core_of s1) = c_tasks (core_of s) /\
  (c_flag (core_of s) = true -> c_flag (core_of s1) = true) /\
  (existsb (fun id => negb (is_prefilled_or_absent (core_of s) id)) ids = true -> c_flag (core_of s1) = true).
Proof.
  induction ids as [|id r IH]; cbn [cancel_release existsb]; intros s u rn s1 u1 r1 H.
  - inversion H; subst. split; [reflexivity|]. split; [auto | discriminate].
  - unfold is_prefilled_or_absent at 1.
    destruct (find_task (c_tasks (core_of s)) id) as [t|] eqn:Ef.
    2:{ cbn [negb orb]. exact (IH _ _ _ _ _ _ H). }
    apply bind_ok in H. destruct H as (csm & _ & H). apply bind_ok in H. destruct H as (rq & _ & H).
    (* a continuation whose flag is set and whose tasks are those of [s] *)
    assert (SET : forall sn rn', c_tasks (core_of sn) = c_tasks (core_of s) -> c_flag (core_of sn) = true ->
              cancel_release sn r (tid_insert_all csm (tid_insert id u)) rn' = Ok (s1, u1, r1) ->
              c_tasks (core_of s1) = c_tasks (core_of s) /\ (c_flag (core_of s) = true -> c_flag (core_of s1) = true) /\
              (negb match t_state t with Prefilled _ => true | _ => false end
               || existsb (fun id0 => negb (is_prefilled_or_absent (core_of s) id0)) r = true -> c_flag (core_of s1) = true)).
    { intros sn rn' Et Fl Hn. destruct (IH _ _ _ _ _ _ Hn) as (A & B & _). split; [congruence|]. split; intros _; exact (B Fl). }
    destruct (t_state t) as [n|w rv|w|w|w rv|ws|] eqn:Est.
    + eapply SET; [| |exact H]; reflexivity.
    + apply bind_ok in H. destruct H as (wk & _ & H). apply bind_ok in H. destruct H as (wk' & _ & H). eapply SET; [| |exact H]; reflexivity.
    + (* prefilled *)
      apply bind_ok in H. destruct H as (q & _ & H). apply bind_ok in H. destruct H as (q' & _ & H).
      apply bind_ok in H. destruct H as (wk & _ & H). apply bind_ok in H. destruct H as (wk' & _ & H).
      destruct (IH _ _ _ _ _ _ H) as (A & B & C). cbn [negb orb].
      split; [exact A|]. split; [exact B|]. intros Hx. apply C. rewrite <- Hx. apply existsb_pa_tasks. reflexivity.
    + apply bind_ok in H. destruct H as (c' & Hc & H). destruct (try_remove_redirection_frame _ _ _ Hc) as [T F].
      eapply SET; [| |exact H]; [exact T | reflexivity].
    + apply bind_ok in H. destruct H as (wk & _ & H). apply bind_ok in H. destruct H as (wk' & _ & H). eapply SET; [| |exact H]; reflexivity.
    + apply bind_ok in H. destruct H as (c' & Hc & H). destruct (reset_mn_all_frame _ _ _ Hc) as [T F].
      destruct ws as [|w0 wr]; [discriminate|]. eapply SET; [| |exact H]; [exact T | reflexivity].
    + discriminate.
Qed.

Lemma on_cancel_tasks_flag s ids s' : on_cancel_tasks s ids = Ok s' ->
  existsb (fun id => negb (is_prefilled_or_absent (core_of s) id)) ids = true -> c_flag (core_of s') = true.
Proof.
  unfold on_cancel_tasks. intros H Hex.
  apply bind_ok in H. destruct H as ([[s1 to_unreg] running] & H1 & H). apply bind_ok in H. destruct H as (c' & Hc & H).
  rewrite (send_all_core _ _ _ H). cbn [core_of st_core with_core s_core fst].
  rewrite (remove_tasks_batched_flag _ _ _ Hc). exact (proj2 (proj2 (cancel_release_flag _ _ _ _ _ _ _ H1)) Hex).
Qed.

Lemma set_cancel_state_core s jid ids s' : set_cancel_state s jid ids = Ok s' -> core_of s' = core_of s.
Proof.
  unfold set_cancel_state. destruct ids as [|i0 ir]; intros H; [inversion H; reflexivity|].
  apply bind_ok in H. destruct H as (j & _ & H). apply bind_ok in H. destruct H as (j1 & _ & H).
  rewrite (check_termination_core _ _ _ H). reflexivity.
Qed.

Definition cancel_quiet (s : sys) (j : N) : bool :=
  match find_job (h_jobs (s_hq s)) j with
  | None => true
  | Some jb => forallb (is_prefilled_or_absent (s_core s)) (non_finished_task_ids jb)
  end.

Lemma forallb_false_existsb {A} (f : A -> bool) l : forallb f l = false -> existsb (fun x => negb (f x)) l = true.
Proof.
  induction l as [|h t IH]; cbn [forallb existsb]; intros H; [discriminate|].
  destruct (f h); cbn [negb andb orb] in *; [exact (IH H) | reflexivity].
Qed.

Lemma step_cancel_flag s j s' outs : step s (OpCancel j) = Ok (s', outs) -> cancel_quiet s j = false -> c_flag (s_core s') = true.
Proof.
  cbn [step]. unfold handle_cancel, cancel_quiet, hq_jobs. cbn [fst]. intros H Hq.
  destruct (find_job (h_jobs (s_hq s)) j) as [jb|]; [|discriminate].
  apply forallb_false_existsb in Hq.
  destruct (non_finished_task_ids jb) as [|i0 ir] eqn:En; [discriminate|]. rewrite <- En in *. clear En.
  apply bind_ok in H. destruct H as (s1 & H1 & H). apply bind_ok in H. destruct H as (al & _ & H). apply bind_ok in H. destruct H as (s2 & H2 & H).
  inversion H; subst. change (c_flag (core_of (emit s2 (OResp (RCancelOk (map snd (non_finished_task_ids jb)) al)))) = true).
  change (core_of (emit s2 (OResp (RCancelOk (map snd (non_finished_task_ids jb)) al)))) with (core_of s2).
  rewrite (set_cancel_state_core _ _ _ _ H2). exact (on_cancel_tasks_flag _ _ _ H1 Hq).
Qed.

Definition op_wake_checked_q (s : sys) (o : op) : bool :=
  match o with
  | OpCancel j => negb (cancel_quiet s j) || op_wake_checked_cd s o
  | _ => op_wake_checked_cd s o
  end.
Fixpoint ops_wake_checked_q (s : sys) (ops : list op) : bool :=
  match ops with
  | [] => true
  | o :: r => op_wake_checked_q s o && match step s o with Ok (s1, _) => ops_wake_checked_q s1 r | _ => true end
  end.

Theorem wake_step_q s o s' outs : INV s ->
  wake_inv s = true -> step s o = Ok (s', outs) -> op_complete s o = true -> op_wake_checked_q s o = true -> wake_inv s' = true.
Proof.
  intros HI HW H Hc Hk.
  destruct o; try (eapply wake_step_cd; eassumption).
  cbn [op_wake_checked_q] in Hk. apply orb_true_iff in Hk. destruct Hk as [Hk|Hk]; [|eapply wake_step_cd; eassumption].
  apply wake_inv_flag. eapply step_cancel_flag; [exact H|]. apply negb_true_iff. exact Hk.
Qed.

Theorem wake_run_q : forall ops s s' outs, along INV s ops ->
  wake_inv s = true -> run s ops = Ok (s', outs) -> ops_complete s ops = true -> ops_wake_checked_q s ops = true -> wake_inv s' = true.
Proof. exact (wake_run_checked op_wake_checked_q ops_wake_checked_q (fun _ _ _ => eq_refl) wake_step_q). Qed.

Theorem wake_reachable_q r m ops s outs :
  Forall op_wf ops -> ops_ok (init_sys r m) ops = true -> ops_complete (init_sys r m) ops = true -> ops_wake_checked_q (init_sys r m) ops = true ->
  run (init_sys r m) ops = Ok (s, outs) -> wake_inv s = true.
Proof.
  intros Hwf Hok Hc Hk H.
  eapply wake_run_q; [| apply wake_inv_init | exact H | exact Hc | exact Hk].
  apply along_INV; [exact Hwf | eapply fresh_of_ops; eassumption].
Qed.

Theorem rest_no_runnable_work_q ops r m s outs :
  Forall op_wf ops -> ops_ok (init_sys r m) ops = true -> ops_complete (init_sys r m) ops = true -> ops_wake_checked_q (init_sys r m) ops = true ->
  run (init_sys r m) ops = Ok (s, outs) -> at_rest s ->
  forall j jb i, find_job (h_jobs (s_hq s)) j = Some jb -> (jt_find (j_tasks jb) i = Some JW \/ jt_find (j_tasks jb) i = Some JR) ->
  exists t, find_task (c_tasks (s_core s)) (j, i) = Some t /\ task_at_rest_ok s (j, i) t.
Proof.
  intros Hwf Hok Hc Hk H Hrest. eapply rest_no_runnable_work_inv; try eassumption. eapply wake_reachable_q; eassumption.
Qed.

(** the example history of WakeRest.v meets the smallest check too (its hypotheses are satisfiable) *)
Lemma ex_ops_checked_q : ops_wake_checked_q (init_sys 0 2) ex_ops = true.
Proof. vm_compute. reflexivity. Qed.

Print Assumptions wake_reachable_q.
Print Assumptions rest_no_runnable_work_q.
