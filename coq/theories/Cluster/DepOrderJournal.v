(** C03 across a restart, part 5: the executable trace monitor [Monitors.journal_dep_closed] holds
    on every history of the system model.

    The monitor reads a list of items: the events ([IEv]) in journal order and one
    [ISubmitted j tasks] per accepted submit, carrying the RAW dependency lists the client sent.
    [items_of_step] builds the items of one operation from its outputs exactly as the driver
    (ocaml/cluster/driver.ml) does from the lines of the real run: an event gives [IEv], the
    response [RSubmitOk] gives [ISubmitted] with the (id, deps) of the task graph of the operation
    (no dependencies for an array submit).  [run_items] is [Sys.run] collecting items.

    [journal_dep_closed_run]: [journal_dep_closed [] [] items = true] for every history.
    No hypothesis about finding F12 is needed: the monitor looks at the dependents submitted BEFORE
    the kill event; a task submitted later with a dependency on an already dead task (F12: the
    core drops that dependency) is not a dependent at that moment. *)
From HQ Require Import Base.Prelude Cluster.Types Cluster.Core Cluster.Server Cluster.Sys Cluster.Monitors Cluster.BijFinal Cluster.ProofsOnce Cluster.StartFinBase Cluster.RejHyp Cluster.InvQStep Cluster.InvDBase Cluster.InvDStep Cluster.InvBundle Cluster.StartFin2 Cluster.DepOrderBase Cluster.DepOrderStep Cluster.DepOrderRun.
From HQ Require Import Cluster.ModelFacts.
Local Open Scope N_scope.

Arguments N.add : simpl never.
Arguments N.sub : simpl never.

Definition sub_tasks (o : op) (ids : list N) : list (N * list N) :=
  match o with
  | OpSubmitG _ _ ts _ => map (fun g => (gt_id g, gt_deps g)) ts
  | _ => map (fun i => (i, [])) ids
  end.

Definition item_of_out (o : op) (x : out) : list item :=
  match x with
  | OEv e => [IEv e]
  | OLaunch l => [ILaunch l]
  | OResp (RSubmitOk j _ ids) => [ISubmitted j (sub_tasks o ids)]
  | _ => []
  end.
Definition items_of_step (o : op) (outs : list out) : list item := flat_map (item_of_out o) outs.

Fixpoint run_items (s : sys) (ops : list op) : res (sys * list item) :=
  match ops with
  | [] => Ok (s, [])
  | o :: r =>
      do (s1, o1) <- step s o;
      do (s2, i2) <- run_items s1 r;
      Ok (s2, items_of_step o o1 ++ i2)
  end.

Lemma run_items_run ops : forall s s' outs, run s ops = Ok (s', outs) -> exists items, run_items s ops = Ok (s', items).
Proof.
  induction ops as [|o r IH]; cbn [run run_items]; intros s s' outs H; [inversion H; subst; eexists; reflexivity|].
  apply bind_ok in H. destruct H as ([s1 o1] & H1 & H). apply bind_ok in H. destruct H as ([s2 o2] & H2 & H). inversion H; subst.
  destruct (IH _ _ _ H2) as (i2 & Hi). rewrite H1. cbn [bind]. rewrite Hi. cbn [bind]. eexists; reflexivity.
Qed.

Definition sub_edges (j : N) (ts : list (N * list N)) : list (tid * list tid) :=
  map (fun kv => ((j, fst kv), map (fun d => (j, d)) (snd kv))) ts.

Fixpoint jdeps (D : list (tid * list tid)) (tr : list item) : list (tid * list tid) :=
  match tr with
  | [] => D
  | ISubmitted j ts :: r => jdeps (sub_edges j ts ++ D) r
  | _ :: r => jdeps D r
  end.

Definition ev_term (e : event) (T : list tid) : list tid :=
  match e with
  | EvFinished t => t :: T
  | EvFailed t _ => t :: T
  | EvCanceled ts => ts ++ T
  | EvAborted ts => ts ++ T
  | _ => T
  end.
Fixpoint jterm (T : list tid) (tr : list item) : list tid :=
  match tr with
  | [] => T
  | IEv e :: r => jterm (ev_term e T) r
  | _ :: r => jterm T r
  end.

Lemma jterm_app a : forall T b, jterm T (a ++ b) = jterm (jterm T a) b.
Proof. induction a as [|i r IH]; intros T b; [reflexivity|]. destruct i; cbn [app jterm]; apply IH. Qed.

Lemma jdeps_app a : forall D b, jdeps D (a ++ b) = jdeps (jdeps D a) b.
Proof. induction a as [|i r IH]; intros D b; [reflexivity|]. destruct i; cbn [app jdeps]; apply IH. Qed.

Lemma jdc_app a : forall D T b,
  journal_dep_closed D T (a ++ b) = journal_dep_closed D T a && journal_dep_closed (jdeps D a) (jterm T a) b.
Proof.
  induction a as [|i r IH]; intros D T b; [reflexivity|].
  destruct i as [e| | | | | | | |j ts]; cbn [app journal_dep_closed jdeps jterm]; try apply IH.
  destruct e; cbn [journal_dep_closed ev_term]; rewrite IH, ?andb_assoc; reflexivity.
Qed.

Lemma items_cons o y r : items_of_step o (y :: r) = item_of_out o y ++ items_of_step o r.
Proof. reflexivity. Qed.

Lemma ev_term_in e T x : In x (ev_term e T) <-> In x (tids_of (OEv e)) \/ In x T.
Proof. destruct e; cbn [ev_term tids_of]; try rewrite in_app_iff; cbn [In]; tauto. Qed.

Lemma jterm_out o y T x : In x (jterm T (item_of_out o y)) <-> In x (tids_of y) \/ In x T.
Proof.
  destruct y as [e|l|rs| | | |]; [apply ev_term_in | | destruct rs | ..]; cbn [item_of_out jterm tids_of In]; tauto.
Qed.

Lemma jterm_in o outs : forall T x, In x (jterm T (items_of_step o outs)) <-> In x T \/ In x (terminal_ids outs).
Proof.
  induction outs as [|y r IH]; intros T x; [cbn; tauto|].
  rewrite items_cons, jterm_app, IH, jterm_out, tids_cons, in_app_iff. tauto.
Qed.

Lemma dependents_of_in D t x : In x (dependents_of D t) <-> exists ds, In (x, ds) D /\ In t ds.
Proof.
  unfold dependents_of. rewrite in_map_iff. split.
  - intros ([x0 ds] & <- & Hin). apply filter_In in Hin. destruct Hin as [Hin Hm]. exists ds. split; [exact Hin|]. apply tid_mem_In. exact Hm.
  - intros (ds & Hin & Ht). exists (x, ds). split; [reflexivity|]. apply filter_In. split; [exact Hin | apply tid_mem_In; exact Ht].
Qed.

Lemma jdeps_in o outs : forall D x ds,
  In (x, ds) (jdeps D (items_of_step o outs)) ->
  In (x, ds) D \/ exists j n ids, In (OResp (RSubmitOk j n ids)) outs /\ In (x, ds) (sub_edges j (sub_tasks o ids)).
Proof.
  induction outs as [|y r IH]; intros D x ds H; [left; exact H|].
  rewrite items_cons, jdeps_app in H. destruct (IH _ _ _ H) as [A|(j & n & ids & A & B)].
  - destruct y as [e|l|rs| | | |]; try (left; exact A). destruct rs; try (left; exact A).
    cbn [item_of_out jdeps] in A. apply in_app_iff in A. destruct A as [A|A]; [|left; exact A].
    right. exists job, n, ids. split; [left; reflexivity | exact A].
  - right. exists j, n, ids. split; [right; exact A | exact B].
Qed.

Lemma jdeps_old tr : forall D e, In e D -> In e (jdeps D tr).
Proof.
  induction tr as [|i r IH]; intros D e H; [exact H|].
  destruct i; cbn [jdeps]; try (apply IH; exact H). apply IH. apply in_app_iff. right; exact H.
Qed.

Lemma dependents_old D tr t x : In x (dependents_of D t) -> In x (dependents_of (jdeps D tr) t).
Proof.
  rewrite !dependents_of_in. intros (ds & Hin & Ht). exists ds. split; [apply jdeps_old; exact Hin | exact Ht].
Qed.

(** One output: the monitor's check of a kill event is the clause of [jc] for that output
    ([Dep] covers the dependents the monitor knows; for [EvFailed] the task itself is not yet in
    the monitor's set, hence irreflexivity). *)
Lemma jdc_out o y D T (Dep : deprel) :
  (forall x t, In x (dependents_of D t) -> Dep x t) -> (forall x, ~ Dep x x) ->
  (forall t x, In t (kill_ids y) -> Dep x t -> In x (tids_of y) \/ In x T) ->
  journal_dep_closed D T (item_of_out o y) = true.
Proof.
  intros HD Hirr J.
  assert (Hall : forall ts, (forall t x, In t ts -> Dep x t -> In x ts \/ In x T) ->
            forallb (fun t => forallb (fun x => tid_mem x (ts ++ T)) (dependents_of D t)) ts = true).
  { intros ts H. apply forallb_forall. intros t Ht. apply forallb_forall. intros x Hx.
    apply tid_mem_In, in_app_iff. exact (H t x Ht (HD _ _ Hx)). }
  destruct y as [e|l|rs| | | |]; try reflexivity; [|destruct rs; reflexivity].
  destruct e; try reflexivity; cbn [item_of_out journal_dep_closed]; rewrite andb_true_r.
  - apply forallb_forall. intros x Hx. apply tid_mem_In. pose proof (HD _ _ Hx) as Hd.
    destruct (J t x (or_introl eq_refl) Hd) as [[<-|[]]|A]; [exfalso; exact (Hirr _ Hd) | exact A].
  - apply Hall. exact J.
  - apply Hall. exact J.
Qed.

Lemma jdc_items o outs : forall D T (Dep : deprel),
  (forall x t, In x (dependents_of (jdeps D (items_of_step o outs)) t) -> Dep x t) -> (forall x, ~ Dep x x) ->
  jc Dep (fun x => In x T) outs -> journal_dep_closed D T (items_of_step o outs) = true.
Proof.
  induction outs as [|y r IH]; intros D T Dep HD Hirr J; [reflexivity|]. destruct J as [J1 J2].
  rewrite items_cons in *. rewrite jdc_app. apply andb_true_intro. split.
  - apply (jdc_out o y D T Dep); [|exact Hirr | exact J1]. intros x t Hx. apply HD, dependents_old. exact Hx.
  - rewrite jdeps_app in HD. apply (IH _ _ Dep); [exact HD | exact Hirr|].
    eapply jc_ext; [|exact J2]. intros x Hx. apply jterm_out. exact Hx.
Qed.

Definition EI (s : sys) (D : list (tid * list tid)) (T : list tid) : Prop :=
  forall x ds d, In (x, ds) D -> In d ds -> x <> d /\ (In x T \/ dead (s, []) d \/ cdep (s_core s) x d).

(** Entries contributed by the step: only an accepted task-graph submit has dependencies. *)
Lemma new_entry_graph s o s' outs j n ids x ds d :
  INV s -> step s o = Ok (s', outs) -> In (OResp (RSubmitOk j n ids)) outs ->
  In (x, ds) (sub_edges j (sub_tasks o ids)) -> In d ds ->
  terminal_ids outs = [] /\ x <> d /\ (dead (s, []) d \/ cdep (s_core s') x d).
Proof.
  intros HI H Hin Hx Hd.
  unfold sub_edges in Hx. apply in_map_iff in Hx. destruct Hx as ([i0 ds0] & Ex & Hx). cbn [fst snd] in Ex. inversion Ex; subst x ds. clear Ex.
  apply in_map_iff in Hd. destruct Hd as (d0 & <- & Hd0).
  destruct o; cbn [sub_tasks] in Hx; try (apply in_map_iff in Hx; destruct Hx as (i & Ei & _); inversion Ei; subst; destruct Hd0).
  apply in_map_iff in Hx. destruct Hx as (g & Eg & Hg). inversion Eg; subst i0 ds0. clear Eg.
  cbn [step] in H. destruct (bad_graph_rq _ _); [inversion H; subst; destruct Hin as [Hin|[]]; discriminate|]. destruct (dead_dep _ _ _); [inversion H; subst; destruct Hin as [Hin|[]]; discriminate|].
  split; [exact (handle_submit_graph_tids _ _ _ _ _ _ H)|].
  assert (P : PRE (s, [])) by (split; [exact (inv_d _ HI) | exact (inv_dj _ HI)]).
  destruct (submit_graph_X (s, []) _ _ _ _ (s', outs) (inv_fresh _ HI) P (inv_cb _ HI) H) as (_ & q & Eq & Hq).
  cbn [snd app] in Eq. subst q.
  destruct (in_split _ _ Hg) as (pre & post & Ets).
  destruct (Hq _ _ _ Hin pre g post d0 Ets Hd0) as [Hne Hor]. split.
  - intros E. inversion E. apply Hne. symmetry. assumption.
  - destruct Hor as [(v & Hv & Ht)|Hc]; [left; left; exists v; split; assumption | right; exact Hc].
Qed.

Lemma run_jdc ops : forall s D T s' items,
  along INV s ops -> Forall op_wf ops -> EI s D T ->
  run_items s ops = Ok (s', items) -> journal_dep_closed D T items = true.
Proof.
  induction ops as [|o r IH]; cbn [run_items]; intros s D T s' items Hal Hwf HE H; [inversion H; subst; reflexivity|].
  apply bind_ok in H. destruct H as ([s1 o1] & H1 & H). apply bind_ok in H. destruct H as ([s2 i2] & H2 & H). inversion H; subst.
  inversion Hwf as [|? ? Hw1 Hw2]; subst. cbn [along] in Hal. destruct Hal as [HI Hal]. rewrite H1 in Hal.
  pose proof (step_EDG _ _ _ _ HI Hw1 H1) as HG.
  set (D1 := jdeps D (items_of_step o o1)). set (T1 := jterm T (items_of_step o o1)).
  assert (HE1 : EI s1 D1 T1).
  { intros x ds d Hx Hd. destruct (jdeps_in _ _ _ _ _ Hx) as [Hold|(j & n & ids & Hin & Hnew)].
    - destruct (HE _ _ _ Hold Hd) as [Hne Hor]. split; [exact Hne|].
      destruct Hor as [A|[A|A]].
      + left. apply jterm_in. left; exact A.
      + right. left. exact (step_dead _ _ _ _ d HI H1 A).
      + destruct (edg_fwd _ _ _ HG x d A) as [B|B]; [right; right; exact B | left; apply jterm_in; right; exact B].
    - destruct (new_entry_graph _ _ _ _ _ _ _ _ _ _ HI H1 Hin Hnew Hd) as (_ & Hne & Hor). split; [exact Hne|].
      destruct Hor as [A|A]; [right; left; exact (step_dead _ _ _ _ d HI H1 A) | right; right; exact A]. }
  rewrite jdc_app. apply andb_true_intro. split; [|eapply IH; [exact Hal | exact Hw2 | exact HE1 | exact H2]].
  apply (jdc_items o o1 D T (fun x t => In x (dependents_of D1 t))); [intros x t Hx; exact Hx | |].
  - intros x Hx. apply dependents_of_in in Hx. destruct Hx as (ds & Hin & Hd). destruct (HE1 _ _ _ Hin Hd) as [Hne _]. apply Hne. reflexivity.
  - (* the events of the step are closed w.r.t. the edges of [s1]; a dependent known to the monitor
       is recorded, or is a dependent in the core *)
    eapply jc_weaken; [| |exact (step_dep_closed_jc _ _ _ _ HI H1)]; [|intros x []].
    intros x t Hkill Hx. destruct (step_killed _ _ _ _ t HI H1 Hkill) as [_ ND].
    apply dependents_of_in in Hx. destruct Hx as (ds & Hin & Hd).
    destruct (jdeps_in _ _ _ _ _ Hin) as [Hold|(j & n & ids & Hin' & Hnew)].
    + destruct (HE _ _ _ Hold Hd) as [_ [A|[A|A]]]; [right; exact A | contradiction | left; exact A].
    + destruct (new_entry_graph _ _ _ _ _ _ _ _ _ _ HI H1 Hin' Hnew Hd) as (Hq & _). rewrite Hq in Hkill. destruct Hkill.
Qed.

(** C03 across a restart: the monitor [journal_dep_closed] accepts the items of EVERY history of
    the system model. *)
Theorem journal_dep_closed_run ops reserve maxfill s items :
  Forall op_wf ops -> run_fresh (init_sys reserve maxfill) ops = true ->
  run_items (init_sys reserve maxfill) ops = Ok (s, items) ->
  journal_dep_closed [] [] items = true.
Proof.
  intros Hwf Hf H.
  apply (run_jdc ops (init_sys reserve maxfill) [] [] s items); [apply along_INV; assumption | exact Hwf | intros x ds d [] | exact H].
Qed.

Print Assumptions journal_dep_closed_run.
