(** C01, "start before finish": the relation [WQ] (StartFin2Base.v) - hence [WK], [SF] of
    StartFinBase.v and [SQ] - through the job layer, the reactor, the client requests and every
    operation that neither loses a worker nor processes a worker's updates.  Those two are the
    places where a start or a worker loss is emitted; for the stronger invariant the reactor is
    here ([SQ_on_task_update]), the worker loss in StartFin2.v; for the weaker one both are
    in StartFin.v. *)
From HQ Require Import Base.Prelude Cluster.Types Cluster.Core Cluster.Reactor Cluster.Worker Cluster.Server Cluster.Sys Cluster.Monitors Cluster.ProofsJob Cluster.ProofsMore Cluster.ProofsTerminal Cluster.ProofsStep Cluster.ProofsFinal Cluster.BijBase Cluster.BijCore Cluster.BijHq Cluster.BijSt Cluster.BijReact Cluster.BijFinal Cluster.FrameGen Cluster.CrashFrame Cluster.InvWBase Cluster.ProofsOnce Cluster.RejHyp Cluster.ReactSplit Cluster.StartFinBase Cluster.StartFin2Base Cluster.StartFin2Core.
From HQ Require Import Cluster.ModelFacts.
From Coq Require Import ZArith Lia Sorting.Sorted.
Local Open Scope N_scope.

Arguments N.add : simpl never.
Arguments N.sub : simpl never.

Lemma WQ_quiet s s' : snd s' = snd s -> core_of s' = core_of s -> nojr s s' -> WQ s s'.
Proof. intros E Ec Hn. apply WQ_tasks; [apply WK_quiet; assumption | rewrite Ec; reflexivity]. Qed.

Lemma SQ_jobs_only s s' : snd s' = snd s -> core_of s' = core_of s -> nojr s s' -> SQ s s'.
Proof. intros E Ec Hn. apply WQ_SQ, WQ_quiet; assumption. Qed.

Lemma WQ_emit1 s s' o :
  snd s' = snd s ++ [o] -> core_of s' = core_of s -> calm o = true ->
  (forall t, o = OEv (EvFinished t) -> task_state s t = Some JR) ->
  (forall x, task_state s' x = Some JR -> task_state s x = Some JR /\ ~ In x (tids_of o)) ->
  WQ s s'.
Proof. intros E Ec Hc Hf Hj. apply WQ_tasks; [eapply WK_emit1; eassumption | rewrite Ec; reflexivity]. Qed.

Lemma WQ_ext s s' ext :
  snd s' = snd s ++ ext -> terminal_ids ext = [] -> forallb calm ext = true -> nojr s s' ->
  c_tasks (core_of s') = c_tasks (core_of s) -> WQ s s'.
Proof. intros E Ht Hc Hn Et. apply WQ_tasks; [eapply WK_ext; eassumption | exact Et]. Qed.

Lemma WQ_check_termination s jid s' : check_termination s jid = Ok s' -> WQ s s'.
Proof.
  intros H. destruct (check_termination_jt _ _ _ H) as [C J].
  assert (Hn : nojr s s') by (intros t Ht; rewrite task_state_jt in Ht |- *; rewrite J in Ht; exact Ht).
  unfold check_termination in H. apply bind_ok in H. destruct H as (j & _ & H). apply bind_ok in H. destruct H as (na & _ & H).
  destruct na; [|inversion H; subst; apply WQ_refl]. destruct (j_open j); inversion H; subst; [apply WQ_refl|].
  eapply (WQ_ext _ _ [OEv (EvCompleted jid)]); [reflexivity | reflexivity | reflexivity | exact Hn | reflexivity].
Qed.

Lemma not_named x t : tid_eqb x t = false -> ~ In x [t].
Proof. intros Ext [E|[]]. subst x. rewrite tid_eqb_refl in Ext. discriminate. Qed.

Lemma WQ_finished s t s' : process_task_finished s t = Ok s' -> WQ s s'.
Proof.
  intros H. pose proof (finished_only_from_running _ _ _ H) as Hr.
  unfold process_task_finished in H. apply bind_ok in H. destruct H as (j & Hj & H).
  destruct (jt_find (j_tasks j) (snd t)) as [v|] eqn:Ef; [|discriminate]. destruct v; try discriminate.
  apply bind_ok in H. destruct H as (nr & _ & H).
  eapply WQ_trans; [|eapply WQ_check_termination; exact H].
  eapply (WQ_emit1 _ _ (OEv (EvFinished t))); [reflexivity | reflexivity | reflexivity | intros x Ex; inversion Ex; subst; exact Hr |].
  intros x Hx. change (task_state (emit ?a ?o) x) with (task_state a x) in Hx.
  rewrite (TS_set_one s 209 t j _ JF x Hj) in Hx by reflexivity.
  destruct (tid_eqb x t) eqn:Ext; [discriminate|]. split; [exact Hx | apply not_named; exact Ext].
Qed.

Lemma set_waiting_spec s t s' : set_waiting_state s t = Ok s' ->
  core_of s' = core_of s /\ snd s' = snd s /\ forall x, task_state s' x = Some JR -> task_state s x = Some JR /\ x <> t.
Proof.
  intros H. unfold set_waiting_state in H. apply bind_ok in H. destruct H as (j & Hj & H).
  destruct (hq_get_job_find _ _ _ _ Hj) as [Hf Eid].
  destruct (jt_find (j_tasks j) (snd t)) as [v|] eqn:Ef; [|discriminate].
  assert (Hsame : s' = s -> v <> JR -> core_of s' = core_of s /\ snd s' = snd s /\ forall x, task_state s' x = Some JR -> task_state s x = Some JR /\ x <> t).
  { intros -> Hv. split; [reflexivity|]. split; [reflexivity|]. intros x Hx. split; [exact Hx|]. intros ->.
    rewrite (TS_find s (fst t) j t Hf eq_refl), Ef in Hx. inversion Hx. contradiction. }
  destruct v; try (apply Hsame; [inversion H; reflexivity | discriminate]).
  apply bind_ok in H. destruct H as (nr & _ & H). inversion H; subst. clear H.
  split; [reflexivity|]. split; [reflexivity|]. intros x Hx.
  rewrite (TS_set_one s 210 t j _ JW x Hj) in Hx by reflexivity.
  destruct (tid_eqb x t) eqn:E; [discriminate|]. split; [exact Hx|]. intros ->. rewrite tid_eqb_refl in E. discriminate.
Qed.

Lemma set_waiting_all_spec ts : forall s s', set_waiting_all s ts = Ok s' ->
  core_of s' = core_of s /\ snd s' = snd s /\ forall x, task_state s' x = Some JR -> task_state s x = Some JR /\ ~ In x ts.
Proof.
  induction ts as [|t r IH]; cbn [set_waiting_all]; intros s s' H.
  - inversion H; subst. split; [reflexivity|]. split; [reflexivity|]. intros x Hx. split; [exact Hx | intros []].
  - apply bind_ok in H. destruct H as (s0 & H0 & H).
    destruct (set_waiting_spec _ _ _ H0) as (C0 & S0 & J0). destruct (IH _ _ H) as (C1 & S1 & J1).
    split; [congruence|]. split; [congruence|]. intros x Hx. destruct (J1 x Hx) as [Hx0 Hn]. destruct (J0 x Hx0) as [Hxs Hne].
    split; [exact Hxs|]. intros [E|Hin]; [exact (Hne (eq_sym E)) | exact (Hn Hin)].
Qed.

Lemma WQ_set_waiting_all ts s s' : set_waiting_all s ts = Ok s' -> WQ s s'.
Proof.
  intros H. destruct (set_waiting_all_spec _ _ _ H) as (C & S & J).
  apply WQ_quiet; [exact S | exact C | intros x Hx; exact (proj1 (J x Hx))].
Qed.

(** The common shape of [abort_tasks] and [set_cancel_state]: the marked tasks are named by the
    one event emitted together with the new job record. *)
Lemma WQ_mark s jid j j1 j2 ids target site o :
  hq_get_job s jid 207 = Ok j -> mark_tasks j ids target site = Ok j1 ->
  j_id j2 = j_id j1 -> j_tasks j2 = j_tasks j1 -> target <> JR ->
  calm o = true -> tids_of o = ids -> (forall t, o <> OEv (EvFinished t)) ->
  WQ s (emit (hq_set_job s j2) o).
Proof.
  intros Hj Hm Hid Ht Htg Hk Ho Hnf.
  destruct (hq_get_job_find _ _ _ _ Hj) as [Hf Eid].
  destruct (mark_tasks_find _ _ _ _ _ Hm) as (M1 & M2 & M3). rewrite Eid in M2.
  eapply (WQ_emit1 _ _ o); [reflexivity | reflexivity | exact Hk | intros x Ex; exfalso; exact (Hnf x Ex) |].
  intros x Hx. change (task_state (emit ?a ?e) x) with (task_state a x) in Hx.
  rewrite TS_set, Hid, M1, Eid, Ht, M3 in Hx. rewrite Ho.
  destruct (N.eqb (fst x) jid) eqn:E.
  - apply N.eqb_eq in E. destruct (snd_mem (snd x) ids) eqn:Em; [inversion Hx; subst; contradiction|].
    split; [rewrite (TS_find s jid j x Hf E); exact Hx|].
    intros Hin. assert (Hxx : x = (jid, snd x)) by (destruct x; cbn in *; subst; reflexivity).
    rewrite Hxx in Hin. apply (snd_mem_in (snd x) ids jid M2) in Hin. congruence.
  - split; [exact Hx|]. intros Hin. apply M2 in Hin. rewrite Hin, N.eqb_refl in E. discriminate.
Qed.

Lemma WQ_abort s jid ids s' : abort_tasks s jid ids = Ok s' -> WQ s s'.
Proof.
  intros H. unfold abort_tasks in H.
  destruct ids as [|i0 ir] eqn:Eids; [inversion H; subst; apply WQ_refl|]. rewrite <- Eids in *.
  apply bind_ok in H. destruct H as (j & Hj & H). apply bind_ok in H. destruct H as (j1 & Hm & H).
  eapply WQ_trans; [|eapply WQ_check_termination; exact H].
  eapply (WQ_mark s jid j j1 _ ids JA 206); [exact Hj | exact Hm | reflexivity | reflexivity | discriminate | reflexivity | reflexivity | discriminate].
Qed.

Lemma WQ_set_cancel s jid ids s' : set_cancel_state s jid ids = Ok s' -> WQ s s'.
Proof.
  intros H. unfold set_cancel_state in H.
  destruct ids as [|i0 ir] eqn:Eids; [inversion H; subst; apply WQ_refl|]. rewrite <- Eids in *.
  apply bind_ok in H. destruct H as (j & Hj & H). apply bind_ok in H. destruct H as (j1 & Hm & H).
  eapply WQ_trans; [|eapply WQ_check_termination; exact H].
  eapply WQ_trans; [apply (WQ_emit_quiet s (OEv (EvJobCancel jid))); reflexivity|].
  match goal with |- WQ _ (emit (emit (hq_set_job s ?j2) ?e1) ?e2) =>
    change (WQ (emit s e1) (emit (hq_set_job (emit s e1) j2) e2));
    eapply (WQ_mark (emit s e1) jid j j1 j2 ids JC 205) end;
    [exact Hj | exact Hm | reflexivity | reflexivity | discriminate | reflexivity | reflexivity | discriminate].
Qed.

Lemma WQ_process_task_failed s t aborted k s' ids : process_task_failed s t aborted k = Ok (s', ids) -> WQ s s'.
Proof.
  intros Hc. unfold process_task_failed in Hc.
  apply bind_ok in Hc. destruct Hc as (s1 & H1 & Hc).
  apply bind_ok in Hc. destruct Hc as (j & Hj & Hc).
  apply bind_ok in Hc. destruct Hc as (j1 & Hj1 & Hc).
  apply bind_ok in Hc. destruct Hc as (s2 & H2 & Hc).
  assert (SB : WQ s1 (emit (hq_set_job s1 j1) (OEv (EvFailed t k)))).
  { destruct (jt_find (j_tasks j) (snd t)) as [v|] eqn:Ef; [|discriminate].
    assert (Hj1' : j_id j1 = j_id j /\ j_tasks j1 = jt_set (j_tasks j) (snd t) JX).
    { destruct v; try discriminate.
      - inversion Hj1; subst. split; reflexivity.
      - apply bind_ok in Hj1. destruct Hj1 as (nr & _ & Hj1). inversion Hj1; subst. split; reflexivity. }
    destruct Hj1' as [I1 T1].
    eapply (WQ_emit1 _ _ (OEv (EvFailed t k))); [reflexivity | reflexivity | reflexivity | intros x Ex; discriminate |].
    intros x Hx. change (task_state (emit ?a ?o) x) with (task_state a x) in Hx.
    rewrite (TS_set_one s1 207 t j j1 JX x Hj I1 T1) in Hx.
    destruct (tid_eqb x t) eqn:Ext; [discriminate|]. split; [exact Hx | apply not_named; exact Ext]. }
  assert (S12 : WQ s s2).
  { eapply WQ_trans; [eapply WQ_abort; exact H1|]. eapply WQ_trans; [exact SB | eapply WQ_check_termination; exact H2]. }
  apply bind_ok in Hc. destruct Hc as (j2 & _ & Hc).
  destruct (j_maxfails j2) as [mf|]; [|inversion Hc; subst; exact S12].
  destruct (N.ltb mf (j_nfail j2)); [|inversion Hc; subst; exact S12].
  apply bind_ok in Hc. destruct Hc as (s3 & H3 & Hc). inversion Hc; subst.
  eapply WQ_trans; [exact S12 | eapply WQ_abort; exact H3].
Qed.

Lemma WQ_core_only s c1 : RKN NoN (core_of s) c1 -> WQ s (st_core s c1).
Proof. intros R. apply WQ_core0; [reflexivity | reflexivity | exact R]. Qed.

Lemma WQ_task_failed s w id k s' : task_failed s w id k = Ok s' -> WQ s s'.
Proof.
  intros H. apply task_failed_split in H. destruct (find_task _ id) as [t|]; [|subst; apply WQ_refl].
  destruct H as (c1 & csm & c2 & c3 & stt & s1 & ids & Et & _ & H2 & H3 & H4 & H).
  assert (S1 : WQ s s1).
  { eapply (WQ_trans _ (st_core s c3)); [|eapply WQ_process_task_failed; exact H4].
    apply WQ_core_only. eapply RKN_trans; [apply RKN_eq; exact Et|].
    eapply RKN_trans; [eapply remove_waiting_consumers_RK; exact H2 | eapply remove_task_RK; exact H3]. }
  destruct ids; [subst; exact S1|].
  eapply WQ_trans; [exact S1|].
  apply WQ_core0; [eapply on_cancel_tasks_hq; exact H | eapply on_cancel_tasks_snd; exact H | eapply on_cancel_tasks_RK; exact H].
Qed.

Lemma WQ_task_finished s w id s' b : task_finished s w id = Ok (s', b) -> WQ s s'.
Proof.
  intros H. apply task_finished_split in H.
  destruct (find_task (c_tasks (core_of s)) id) as [t|] eqn:Ef; [|subst; apply WQ_refl].
  destruct (find_task_some _ _ _ Ef) as [Hin _].
  destruct H as (c1 & s1 & c3 & rt & s2 & c4 & Et & Hf & Hw & Hr & Hrm & ->).
  eapply (WQ_trans _ (st_core s (upd_task c1 (with_state t Finished)))).
  { apply WQ_core_only. eapply RKN_trans; [apply RKN_eq; exact Et|].
    eapply (RKN_upd NoN c1 _ t); [rewrite Et; exact Hin | reflexivity | intros w1 _; exact I]. }
  eapply WQ_trans; [eapply WQ_finished; exact Hf|].
  eapply (WQ_trans _ (st_core s1 c3)); [apply WQ_core_only; eapply wake_consumers_RK; exact Hw|].
  eapply WQ_trans; [apply WQ_core0; [exact (process_retracted_hq _ _ _ Hr) | exact (process_retracted_snd _ _ _ Hr) | exact (process_retracted_RK NoN _ _ _ Hr)]|].
  apply WQ_core_only. eapply remove_task_RK; exact Hrm.
Qed.

Lemma WQ_lost_fail_running l : forall s reason s', lost_fail_running s reason l = Ok s' -> WQ s s'.
Proof.
  apply (lost_fail_running_rel WQ WQ_refl WQ_trans).
  - intros s id t Ef. destruct (find_task_some _ _ _ Ef) as [Hin _]. apply WQ_core_only.
    eapply (RKN_upd NoN _ _ t); [exact Hin | reflexivity | apply keeps_refl].
  - intros s id k s' _ H. eapply WQ_task_failed; exact H.
Qed.

Lemma SQ_started s t i ws rv w s' :
  process_task_started s t i ws rv = Ok s' -> hd_error ws = Some w -> core_root (core_of s) t w -> SQ s s'.
Proof.
  intros H Hh Hr. destruct (process_task_started_jr _ _ _ _ _ _ H) as (E & Ec & Hj).
  exact (SQ_start _ _ _ _ _ _ _ E Ec Hh Hr Hj).
Qed.

Lemma core_root_upd c c1 x w :
  TS c1 -> c_tasks c = c_tasks (upd_task c1 x) -> rootok (t_state x) w -> core_root c (t_id x) w.
Proof.
  intros Hs Ec Hr tk Hin Hid. rewrite Ec in Hin. cbn [upd_task with_tasks c_tasks] in Hin.
  rewrite (set_task_in_same _ _ _ Hs Hin Hid). exact Hr.
Qed.

Lemma core_root_found c id t w : TS c -> find_task (c_tasks c) id = Some t -> rootok (t_state t) w -> core_root c id w.
Proof.
  intros Hs Hf Hr tk Hin Hid. pose proof (in_find_task _ _ Hs Hin) as Hf'. rewrite Hid, Hf in Hf'. inversion Hf'; subst. exact Hr.
Qed.

Lemma SQ_task_running s w id rv s' b : TS (core_of s) -> task_running s w id rv = Ok (s', b) -> SQ s s'.
Proof.
  intros Hs H. apply task_running_split in H.
  destruct (find_task (c_tasks (core_of s)) id) as [t|] eqn:Ef; [|subst; apply SQ_refl].
  destruct (find_task_some _ _ _ Ef) as [Hin Hid].
  destruct H as (s1 & ws & Q1 & S1 & H2 & [(-> & Hnr & c1 & E1 & E2)|(-> & rest & -> & Est)]).
  - eapply (SQ_trans _ s1); [|eapply (SQ_started _ _ _ _ _ w); [exact H2 | reflexivity|]].
    + apply WQ_SQ, WQ_core0; [exact Q1 | exact S1|].
      apply (RKN_upd_gen NoN (core_of s) c1 (with_state t (Running w rv)) _ t); [exact E1 | exact Hin | reflexivity | | exact E2].
      intros w0 HH. destruct (t_state t); contradiction.
    + rewrite <- Hid. apply (core_root_upd _ c1 (with_state t (Running w rv))); [unfold TS; rewrite E1; exact Hs | exact E2 | reflexivity].
  - eapply (SQ_started _ _ _ _ _ w); [exact H2 | reflexivity|].
    eapply core_root_found; [exact Hs | exact Ef | rewrite Est; reflexivity].
Qed.

(** [SQ] for a piece that keeps the task map sorted, which [task_running] needs. *)
Definition SQT (s s' : st) : Prop := TS (core_of s) -> TS (core_of s') /\ SQ s s'.

Lemma SQT_one s w u s' n : apply_one s w u = Ok (s', n) -> SQT s s'.
Proof.
  intros Hu Hs. split.
  - assert (Hone : apply_updates s w [u] false = Ok (s', false || n)) by (rewrite apply_updates_cons, Hu; reflexivity).
    exact (proj1 (apply_updates_csub _ _ _ _ _ _ Hs Hone)).
  - destruct u; cbn [apply_one] in Hu.
    + apply WQ_SQ. eapply WQ_task_finished; exact Hu.
    + apply bind_ok in Hu. destruct Hu as (sx & Hf & Hu). inversion Hu; subst. apply WQ_SQ. eapply WQ_task_failed; exact Hf.
    + eapply SQ_task_running; [exact Hs | exact Hu].
    + eapply SQ_task_running; [exact Hs | exact Hu].
    + apply WQ_SQ, WQ_core0; [exact (task_reject_same _ _ _ _ _ _ Hu) | eapply task_reject_snd; exact Hu | eapply task_reject_RK; exact Hu].
    + apply bind_ok in Hu. destruct Hu as (sx & Hf & Hu). inversion Hu; subst.
      unfold request_enabled in Hf. inv_binds Hf. inversion Hf; subst. apply WQ_SQ, WQ_same; reflexivity.
Qed.

Lemma SQ_on_task_update s w us s' : TS (core_of s) -> on_task_update s w us = Ok s' -> SQ s s'.
Proof.
  intros Hs H. refine (proj2 (on_task_update_rel SQT _ _ SQT_one s w us s' _ H Hs)).
  - intros x Hx. split; [exact Hx | apply SQ_refl].
  - intros a b c A B Ha. destruct (A Ha) as [Hb Sab]. destruct (B Hb) as [Hc Sbc]. split; [exact Hc | eapply SQ_trans; eassumption].
  - intros x Hx. split; [exact Hx | apply WQ_SQ, WQ_same; reflexivity].
Qed.

Lemma nojr_jobs s s' : h_jobs (hq_of s') = h_jobs (hq_of s) -> nojr s s'.
Proof. intros E x Hx. unfold task_state in *. rewrite E in Hx. exact Hx. Qed.

Lemma nojr_new_job s jid open mf cnt :
  nojr s (hq_with s (set_job (hq_jobs s) (mkJob jid open [] 0 0 0 0 0 false mf)) cnt).
Proof.
  intros x Hx. unfold task_state, hq_of, hq_with, hq_jobs in *. cbn in Hx. rewrite find_job_set in Hx. cbn in Hx.
  destruct (N.eqb (fst x) jid); [discriminate | exact Hx].
Qed.

Lemma WQ_submit_tail s4 jid ids tasks s' :
  (forall t, In t tasks -> fst (t_id t) = jid /\ In (snd (t_id t)) ids) ->
  (do j <- hq_get_job s4 jid 222;
   do j' <- attach_ids j ids;
   do s6 <- on_new_tasks (hq_set_job s4 j') tasks;
   submit_ok_resp s6 jid) = Ok s' -> WQ s4 s'.
Proof.
  intros Hids H. apply bind_ok in H. destruct H as (j & Hj & H). apply bind_ok in H. destruct H as (j' & Ha & H).
  apply bind_ok in H. destruct H as (s6 & H6 & H).
  destruct (attach_ids_find _ _ _ Ha) as [I1 I2]. destruct (hq_get_job_find _ _ _ _ Hj) as [Hf Eid].
  eapply WQ_trans; [apply (WQ_quiet s4 (hq_set_job s4 j')); [reflexivity | reflexivity|]|].
  - intros x Hx. rewrite TS_set, I1, Eid in Hx. destruct (N.eqb (fst x) jid) eqn:E; [|exact Hx].
    apply N.eqb_eq in E. rewrite I2 in Hx. destruct (n_mem (snd x) ids); [discriminate|].
    rewrite (TS_find s4 jid j x Hf E). exact Hx.
  - eapply WQ_trans.
    + apply (WQ_frame (fun x => fst x = jid /\ In (snd x) ids) (hq_set_job s4 j') s6);
        [apply WK_core; [eapply on_new_tasks_hq; exact H6 | eapply on_new_tasks_snd; exact H6] | | ].
      * eapply on_new_tasks_RK; [|exact H6]. exact Hids.
      * intros x [Ex Hin] Hx. rewrite (task_state_same _ _ _ (on_new_tasks_hq _ _ _ H6)), TS_set, I1, Eid in Hx.
        rewrite Ex, N.eqb_refl, I2 in Hx. apply n_mem_In in Hin. rewrite Hin in Hx. discriminate.
    + unfold submit_ok_resp in H. apply bind_ok in H. destruct H as (jx & _ & H). inversion H; subst.
      apply WQ_emit_quiet; reflexivity.
Qed.

Lemma WQ_submit_job s jid is_new n mf : WQ s (submit_job s jid is_new n mf).
Proof.
  unfold submit_job. destruct is_new; cbv zeta; [|apply WQ_emit_quiet; reflexivity].
  eapply (WQ_trans _ (hq_with s (hq_jobs s) (jid + 1))); [apply WQ_quiet; [reflexivity | reflexivity | apply nojr_jobs; reflexivity]|].
  eapply WQ_trans; [apply (WQ_emit_quiet _ (OEv (EvSubmit jid true n))); reflexivity|].
  apply WQ_quiet; [reflexivity | reflexivity | apply nojr_new_job].
Qed.

Lemma WQ_submit_array s jobsel ids entries rq prio cl tlim mf s' :
  handle_submit_array s jobsel ids entries rq prio cl tlim mf = Ok s' -> WQ s s'.
Proof.
  intros H. destruct (handle_submit_array_spec _ _ _ _ _ _ _ _ _ _ H) as [(c & a & ->)|(jid & is_new & ids' & s4 & rqi & _ & _ & Erq & Ht)];
    [apply WQ_emit_quiet; reflexivity|].
  eapply WQ_trans; [apply WQ_submit_job|]. eapply WQ_trans; [|eapply WQ_submit_tail; [|exact Ht]].
  - apply WQ_same; [eapply get_or_create_rq_keeps; exact Erq | | ].
    + pose proof (get_or_create_rq_snd (submit_job s jid is_new (N.of_nat (length ids')) mf) rq) as S4. rewrite Erq in S4. exact S4.
    + pose proof (get_or_create_rq_tasks (submit_job s jid is_new (N.of_nat (length ids')) mf) rq) as T4. rewrite Erq in T4. exact T4.
  - intros t Hin. apply in_map_iff in Hin. destruct Hin as (i & <- & Hi). cbn. split; [reflexivity|].
    destruct entries; [eapply take_n_in; exact Hi | exact Hi].
Qed.

Lemma WQ_submit_graph s jobsel rqs ts mf s' :
  handle_submit_graph s jobsel rqs ts mf = Ok s' -> WQ s s'.
Proof.
  intros H. destruct (handle_submit_graph_spec _ _ _ _ _ _ H) as [(r & ->)|(jid & is_new & s4 & rqis & tasks & _ & Erq & Hg & Ht)];
    [apply WQ_emit_quiet; reflexivity|].
  eapply WQ_trans; [apply WQ_submit_job|]. eapply WQ_trans; [|eapply WQ_submit_tail; [|exact Ht]].
  - apply WQ_same; [eapply fold_rqs_same; exact Erq | eapply fold_rqs_snd; exact Erq | eapply fold_rqs_tasks; exact Erq].
  - destruct (graph_tasks_spec _ _ _ _ Hg) as [Hm _].
    intros t Hin. assert (Hi : In (t_id t) (map t_id tasks)) by (apply in_map; exact Hin).
    rewrite Hm in Hi. apply in_map_iff in Hi. destruct Hi as (i & Ei & Hi). rewrite <- Ei. cbn. split; [reflexivity | exact Hi].
Qed.

Lemma WQ_cancel s jid s' : handle_cancel s jid = Ok s' -> WQ s s'.
Proof.
  intros H. unfold handle_cancel in H. destruct (find_job _ jid) as [jb|]; [|inversion H; subst; apply WQ_emit_quiet; reflexivity].
  destruct (non_finished_task_ids jb) eqn:En; [inversion H; subst; apply WQ_emit_quiet; reflexivity|]. rewrite <- En in H.
  apply bind_ok in H. destruct H as (s1 & H1 & H). apply bind_ok in H. destruct H as (al & _ & H).
  apply bind_ok in H. destruct H as (s2 & H2 & H). inversion H; subst.
  eapply WQ_trans; [apply WQ_core0; [eapply on_cancel_tasks_hq; exact H1 | eapply on_cancel_tasks_snd; exact H1 | eapply on_cancel_tasks_RK; exact H1]|].
  eapply WQ_trans; [eapply WQ_set_cancel; exact H2 | apply WQ_emit_quiet; reflexivity].
Qed.

Lemma WQ_close s jid s' : handle_close s jid = Ok s' -> WQ s s'.
Proof.
  intros H. unfold handle_close in H.
  destruct (find_job _ jid) as [jb|] eqn:Ef; [|inversion H; subst; apply WQ_emit_quiet; reflexivity].
  destruct (j_open jb); [|inversion H; subst; apply WQ_emit_quiet; reflexivity].
  apply bind_ok in H. destruct H as (s1 & H1 & H). inversion H; subst.
  eapply WQ_trans; [|apply WQ_emit_quiet; reflexivity].
  eapply WQ_trans; [|eapply WQ_check_termination; exact H1].
  eapply WQ_trans; [|apply WQ_emit_quiet; reflexivity].
  apply WQ_quiet; [reflexivity | reflexivity|]. intros x Hx. rewrite TS_set in Hx. cbn [j_id j_tasks] in Hx.
  rewrite (find_job_id _ _ _ Ef) in Hx.
  destruct (N.eqb (fst x) jid) eqn:E; [|exact Hx]. apply N.eqb_eq in E. rewrite (TS_find s jid jb x Ef E). exact Hx.
Qed.

Lemma WQ_forget s jid s' : handle_forget s jid = Ok s' -> WQ s s'.
Proof.
  intros H. unfold handle_forget in H. destruct (find_job _ jid) as [jb|]; [|inversion H; subst; apply WQ_emit_quiet; reflexivity].
  apply bind_ok in H. destruct H as (na & _ & H).
  destruct (negb (j_open jb) && na); inversion H; subst; [|apply WQ_emit_quiet; reflexivity].
  eapply WQ_trans; [|apply WQ_emit_quiet; reflexivity].
  apply WQ_quiet; [reflexivity | reflexivity|]. intros x Hx. unfold task_state, hq_of, hq_with, hq_jobs in *. cbn in Hx.
  destruct (N.eq_dec (fst x) jid) as [E|E].
  - rewrite E, find_job_del_same in Hx. discriminate.
  - rewrite (find_job_del _ _ _ E) in Hx. exact Hx.
Qed.

Lemma calm_launch ls : forallb calm (map OLaunch ls) = true.
Proof. induction ls as [|l r IH]; [reflexivity | exact IH]. Qed.

Lemma WQ_retract_response s w ids s' : on_retract_response s w ids = Ok s' -> WQ s s'.
Proof.
  intros H. apply WQ_core0; [eapply on_retract_response_same; exact H | | eapply on_retract_response_RK; exact H].
  unfold on_retract_response in H. destruct (retract_response_states _ w ids []) as [c' groups].
  apply bind_ok in H. destruct H as (s2 & H & H2).
  assert (Es : snd s' = snd s2) by (destruct (retract_wakes _ _ _ _); inversion H2; subst; reflexivity).
  rewrite Es, (send_redirected_snd _ _ _ H). reflexivity.
Qed.

Definition ordinary (o : op) : Prop := match o with OpLost _ _ _ _ _ | OpDUp _ => False | _ => True end.

Theorem step_WQ s o s' outs : ordinary o -> step s o = Ok (s', outs) -> WQ (s, []) (s', outs).
Proof.
  assert (Hext : forall (a b : sys) ext, terminal_ids ext = [] -> forallb calm ext = true ->
            s_hq b = s_hq a -> c_tasks (s_core b) = c_tasks (s_core a) -> WQ (a, []) (b, ext)).
  { intros a b ext Ht Hc Eh Et. apply (WQ_ext _ _ ext); [reflexivity | exact Ht | exact Hc | apply nojr_same; exact Eh | exact Et]. }
  apply (step_walk WQ ordinary).
  - intros a rs g b _ H. unfold on_new_worker in H. inversion H; subst. apply Hext; reflexivity.
  - intros ? ? ? ? ? ? ? ? [].
  - intros a o0 c x _. apply Hext; reflexivity.
  - intros. eapply WQ_submit_array; eassumption.
  - intros. eapply WQ_submit_graph; eassumption.
  - intros a mf b _ H. unfold handle_open in H. inversion H; subst.
    eapply (WQ_trans _ (hq_with (a, []) _ _)); [apply WQ_quiet; [reflexivity | reflexivity | apply nojr_new_job]|].
    eapply WQ_trans; apply WQ_emit_quiet; reflexivity.
  - intros. eapply WQ_close; eassumption.
  - intros. eapply WQ_cancel; eassumption.
  - intros. eapply WQ_forget; eassumption.
  - intros ? ? ? ? ? ? [].
  - intros a sol b _ _ H.
    apply WQ_core0; [eapply run_scheduling_same; exact H | eapply run_scheduling_snd; exact H | eapply run_scheduling_RK; exact H].
  - intros a lj _ _. apply Hext; reflexivity.
  - intros a w order p m rest p' ls _ _ _ _.
    apply Hext; try reflexivity; [unfold terminal_ids; cbn [flat_map tids_of app]; apply tids_launch | apply calm_launch].
  - intros a w t how p p' ls _ _ _. apply Hext; try reflexivity; [apply tids_launch | apply calm_launch].
  - intros. apply WQ_same; reflexivity.
  - intros. apply WQ_same; reflexivity.
Qed.
