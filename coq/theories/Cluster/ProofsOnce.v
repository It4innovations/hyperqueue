(** C01, "reported once": along ANY history of the system model every task gets at most one
    terminal event (finished / failed / canceled / aborted) in the stream of events the server
    emits, and when it got one, the job layer shows a terminal outcome for it (or its whole job has
    been forgotten, and that job id is never used again). *)
From HQ Require Import Base.Prelude Cluster.Types Cluster.Core Cluster.Reactor Cluster.Worker Cluster.Server Cluster.Sys Cluster.Monitors Cluster.ProofsJob Cluster.ProofsMore Cluster.ProofsTerminal Cluster.ProofsStep Cluster.ProofsFinal Cluster.BijBase Cluster.BijHq.
From HQ Require Import Cluster.ModelFacts.
From Coq Require Import ZArith Lia.
Require Import ZifyBool ZifyN.
From HQ Require Import Cluster.RejHyp Cluster.StepShape.
Local Open Scope N_scope.

Arguments N.add : simpl never.
Arguments N.sub : simpl never.

Definition tids_of (o : out) : list tid :=
  match o with
  | OEv (EvFinished t) => [t]
  | OEv (EvFailed t _) => [t]
  | OEv (EvCanceled ts) => ts
  | OEv (EvAborted ts) => ts
  | _ => []
  end.
Definition terminal_ids (outs : list out) : list tid := flat_map tids_of outs.
Definition tcount (outs : list out) (t : tid) : nat := count_occ tid_dec (terminal_ids outs) t.

Lemma terminal_ids_app a b : terminal_ids (a ++ b) = terminal_ids a ++ terminal_ids b.
Proof. unfold terminal_ids. apply flat_map_app. Qed.
Lemma tids_cons o r : terminal_ids (o :: r) = tids_of o ++ terminal_ids r.
Proof. reflexivity. Qed.
Lemma tcount_app a b t : tcount (a ++ b) t = (tcount a t + tcount b t)%nat.
Proof. unfold tcount. rewrite terminal_ids_app. apply count_occ_app. Qed.

(** The job layer has recorded an outcome for the task, or its job is gone for good. *)
Definition dead (s : st) (t : tid) : Prop :=
  (exists v, task_state s t = Some v /\ terminal v) \/ (absent s (fst t) /\ fst t < cnt_of s).

Lemma G_dead s s' t : fresh s -> G s s' -> dead s t -> dead s' t.
Proof.
  intros F [T A C _] [(v & Hv & Ht)|[Ha Hl]].
  - destruct (T t v Hv Ht) as [H|H]; [left; eauto|]. right. split; [exact H|].
    destruct (task_state_job _ _ _ Hv) as (j & Hj).
    pose proof (F _ (find_job_in _ _ _ Hj)) as Hlt. rewrite (find_job_id _ _ _ Hj) in Hlt. unfold cnt_of in *. lia.
  - right. split; [apply A; assumption | unfold cnt_of in *; lia].
Qed.

Lemma task_state_jt s t : task_state s t = match jt s (fst t) with Some l => jt_find l (snd t) | None => None end.
Proof. unfold task_state, jt. destruct (find_job _ (fst t)); reflexivity. Qed.

Lemma active_not_dead s t : active s t -> ~ dead s t.
Proof.
  intros (l & Hl & Ha) [(v & Hv & Ht)|[Hab _]].
  - rewrite task_state_jt, Hl in Hv. destruct Ha as [Ha|Ha]; rewrite Ha in Hv; inversion Hv; subst;
      destruct Ht as [X|[X|[X|X]]]; discriminate.
  - unfold absent in Hab. unfold jt in Hl. rewrite Hab in Hl. discriminate.
Qed.

Definition TE (s s' : st) : Prop :=
  forall t, (dead s t -> dead s' t /\ tcount (snd s') t = tcount (snd s) t) /\
            (tcount (snd s') t = tcount (snd s) t \/ (tcount (snd s') t = S (tcount (snd s) t) /\ dead s' t)).

Lemma TE_trans s1 s2 s3 : TE s1 s2 -> TE s2 s3 -> TE s1 s3.
Proof.
  intros A B t. destruct (A t) as [A1 A2], (B t) as [B1 B2]. split.
  - intros D. destruct (A1 D) as [D2 E2]. destruct (B1 D2) as [D3 E3]. split; [exact D3 | congruence].
  - destruct A2 as [A2|[A2 D2]].
    + destruct B2 as [B2|[B2 D3]]; [left; congruence | right; split; [congruence | exact D3]].
    + destruct (B1 D2) as [D3 E3]. right. split; [congruence | exact D3].
Qed.

Lemma TE_same s s' : hq_of s' = hq_of s -> terminal_ids (snd s') = terminal_ids (snd s) -> TE s s'.
Proof.
  intros Hq He t. unfold tcount. rewrite He. split; [|left; reflexivity].
  intros D. split; [|reflexivity]. unfold dead, task_state, absent, cnt_of in *. rewrite Hq. exact D.
Qed.

(** The general base case: the stream grows by the ids [N], each of them active before and with a
    terminal state afterwards, none of them twice. *)
Lemma TE_base s s' N :
  fresh s -> G s s' ->
  terminal_ids (snd s') = terminal_ids (snd s) ++ N -> NoDup N ->
  (forall t, In t N -> active s t /\ exists v, task_state s' t = Some v /\ terminal v) -> TE s s'.
Proof.
  intros F Gs He Hn HN t. unfold tcount. rewrite He, count_occ_app. split.
  - intros D. split; [eapply G_dead; eassumption|].
    destruct (in_dec tid_dec t N) as [Hin|Hni]; [exfalso; exact (active_not_dead _ _ (proj1 (HN _ Hin)) D)|].
    rewrite (proj1 (count_occ_not_In tid_dec N t) Hni). lia.
  - destruct (in_dec tid_dec t N) as [Hin|Hni].
    + right. split; [|left; exact (proj2 (HN _ Hin))].
      rewrite (proj1 (NoDup_count_occ' tid_dec N) Hn t Hin). lia.
    + left. rewrite (proj1 (count_occ_not_In tid_dec N t) Hni). lia.
Qed.

Lemma TE_core s s' : hq_of s' = hq_of s -> snd s' = snd s -> TE s s'.
Proof. intros Hq Hs. apply TE_same; [exact Hq | rewrite Hs; reflexivity]. Qed.

(** [G] and [TE] together, under the side condition [fresh]: reflexive and transitive, the form the
    closure lemmas of [StepShape] take. *)
Definition TF (s s' : st) : Prop := fresh s -> G s s' /\ TE s s'.

Lemma TF_intro s s' : GF s s' -> (fresh s -> TE s s') -> TF s s'.
Proof. intros A B F. split; [exact (A F) | exact (B F)]. Qed.
Lemma TF_core s s' : hq_of s' = hq_of s -> snd s' = snd s -> TF s s'.
Proof. intros Q S _. split; [apply G_same; exact Q | apply TE_core; assumption]. Qed.
Lemma TF_refl s : TF s s.
Proof. apply TF_core; reflexivity. Qed.
Lemma TF_trans a b c : TF a b -> TF b c -> TF a c.
Proof.
  intros A B F. destruct (A F) as [G1 T1]. destruct (B (g_fresh _ _ G1 F)) as [G2 T2].
  split; [exact (G_trans _ _ _ F G1 G2) | exact (TE_trans _ _ _ T1 T2)].
Qed.

Lemma tids_emit s o : terminal_ids (snd (emit s o)) = terminal_ids (snd s) ++ tids_of o.
Proof. unfold emit. cbn [snd]. rewrite terminal_ids_app. unfold terminal_ids at 2. cbn. rewrite app_nil_r. reflexivity. Qed.

Lemma check_termination_tids s jid s' : check_termination s jid = Ok s' -> terminal_ids (snd s') = terminal_ids (snd s).
Proof.
  unfold check_termination. intros H. apply bind_ok in H. destruct H as (j & _ & H). apply bind_ok in H. destruct H as (na & _ & H).
  destruct na; [|inversion H; reflexivity]. destruct (j_open j); inversion H; subst; [reflexivity|].
  rewrite tids_emit. cbn. rewrite app_nil_r. reflexivity.
Qed.

Lemma G_check_termination s jid s' : check_termination s jid = Ok s' -> G s s'.
Proof. intros H. exact (G_JP _ _ (check_termination_JP _ _ _ H)). Qed.

Lemma TE_check_termination s jid s' : fresh s -> check_termination s jid = Ok s' -> TE s s'.
Proof.
  intros F H. eapply (TE_base s s' []); [exact F | eapply G_check_termination; exact H | | constructor | intros t []].
  rewrite app_nil_r. eapply check_termination_tids; exact H.
Qed.

Lemma TE_started s t i ws rv s' : fresh s -> process_task_started s t i ws rv = Ok s' -> TE s s'.
Proof.
  intros F H. eapply (TE_base s s' []); [exact F | eapply G_started; exact H | | constructor | intros x []].
  rewrite app_nil_r. unfold process_task_started in H. apply bind_ok in H. destruct H as (j & _ & H).
  destruct (jt_find _ _); [|discriminate]. inversion H; subst. rewrite tids_emit. cbn. rewrite app_nil_r. reflexivity.
Qed.

Lemma task_state_set_one s s' t l v' :
  jt s (fst t) = Some l ->
  (forall id, jt s' id = if N.eqb id (fst t) then Some (jt_set l (snd t) v') else jt s id) ->
  task_state s' t = Some v'.
Proof. intros Hl E. rewrite task_state_jt, E, N.eqb_refl, jt_find_set, N.eqb_refl. reflexivity. Qed.

Lemma TE_finished s t s' : fresh s -> process_task_finished s t = Ok s' -> TE s s'.
Proof.
  intros F H. pose proof (G_finished _ _ _ H) as Gs.
  unfold process_task_finished in H. apply bind_ok in H. destruct H as (j & Hj & H).
  destruct (jt_get _ _ _ _ Hj) as [Ej Eid].
  destruct (jt_find (j_tasks j) (snd t)) as [v|] eqn:Ef; [|discriminate]. destruct v; try discriminate.
  apply bind_ok in H. destruct H as (nr & _ & H).
  destruct (check_termination_jt _ _ _ H) as [_ J1].
  eapply (TE_base s s' [t]); [exact F | exact Gs | | constructor; [intros [] | constructor] | ].
  - rewrite (check_termination_tids _ _ _ H), tids_emit. reflexivity.
  - intros x [<-|[]]. split; [exists (j_tasks j); split; [exact Ej | right; exact Ef]|].
    exists JF. split; [|left; reflexivity].
    eapply (task_state_set_one s s' t _ JF Ej). intros id. rewrite J1, jt_emit, jt_set_job. cbn [j_id job_upd j_tasks]. rewrite Eid. reflexivity.
Qed.

Lemma mark_tasks_nodup target site ids : ~ jactive (Some target) -> forall j j',
  mark_tasks j ids target site = Ok j' ->
  NoDup ids /\ forall t, In t ids -> fst t = j_id j /\ jactive (jt_find (j_tasks j) (snd t)).
Proof.
  intros Hna. induction ids as [|t r IH]; cbn [mark_tasks]; intros j j' H.
  - split; [constructor | intros t []].
  - destruct (negb (N.eqb (fst t) (j_id j))) eqn:Ej; [discriminate|].
    apply negb_false_iff in Ej. apply N.eqb_eq in Ej.
    destruct (jt_find (j_tasks j) (snd t)) as [v|] eqn:Ef; [|discriminate].
    assert (Hstep : forall j1, j_id j1 = j_id j -> j_tasks j1 = jt_set (j_tasks j) (snd t) target -> jactive (Some v) ->
              mark_tasks j1 r target site = Ok j' ->
              NoDup (t :: r) /\ forall x, In x (t :: r) -> fst x = j_id j /\ jactive (jt_find (j_tasks j) (snd x))).
    { intros j1 Hid Ht Hv H1. destruct (IH _ _ H1) as [In1 Ia1].
      assert (Hnot : ~ In t r).
      { intros Hin. destruct (Ia1 _ Hin) as [_ Ha]. rewrite Ht, jt_find_set, N.eqb_refl in Ha. exact (Hna Ha). }
      split; [constructor; assumption|].
      intros x [<-|Hx]; [split; [exact Ej | rewrite Ef; exact Hv]|].
      destruct (Ia1 _ Hx) as [Hf Ha]. split; [congruence|].
      rewrite Ht, jt_find_set in Ha. destruct (N.eqb (snd x) (snd t)) eqn:E; [exfalso; exact (Hna Ha) | exact Ha]. }
    destruct v; try discriminate.
    + eapply Hstep; [| | left; reflexivity | exact H]; reflexivity.
    + apply bind_ok in H. destruct H as (nr & _ & H). eapply Hstep; [| | right; reflexivity | exact H]; reflexivity.
Qed.

Lemma G_abort s jid ids s' : abort_tasks s jid ids = Ok s' -> G s s'.
Proof. intros H. exact (G_JP _ _ (abort_tasks_JP _ _ _ _ H)). Qed.

(** The common shape of [abort_tasks] and [set_cancel_state]: TE with N = ids. *)
Lemma TE_mark s jid j j1 j2 ids target site s2 :
  fresh s -> G s s2 -> ~ jactive (Some target) -> terminal target ->
  hq_get_job s jid 207 = Ok j -> mark_tasks j ids target site = Ok j1 ->
  j_id j2 = j_id j1 -> j_tasks j2 = j_tasks j1 ->
  (forall id, jt s2 id = jt (hq_set_job s j2) id) ->
  terminal_ids (snd s2) = terminal_ids (snd s) ++ ids -> TE s s2.
Proof.
  intros F Gs Hna Hterm Hj Hm Hid Ht E He.
  destruct (jt_get _ _ _ _ Hj) as [Ej Eid].
  destruct (mark_tasks_nodup _ _ _ Hna _ _ Hm) as [Hn Ha].
  destruct (mark_tasks_find _ _ _ _ _ Hm) as (M1 & M2 & M3).
  eapply (TE_base s s2 ids); [exact F | exact Gs | exact He | exact Hn|].
  intros t Hin. destruct (Ha _ Hin) as [Hf Hact]. rewrite Eid in Hf. split.
  - exists (j_tasks j). rewrite Hf. split; [exact Ej | exact Hact].
  - exists target. split; [|exact Hterm].
    rewrite task_state_jt, E, jt_set_job, Hid, M1, Eid, Hf, N.eqb_refl, Ht, M3.
    rewrite Eid in M2. pose proof (snd_mem_in (snd t) ids jid M2) as Hmem.
    assert (Hx : t = (jid, snd t)) by (destruct t; cbn in *; subst; reflexivity).
    replace (snd_mem (snd t) ids) with true; [reflexivity|]. symmetry. apply Hmem. rewrite <- Hx. exact Hin.
Qed.

Lemma TE_abort s jid ids s' : fresh s -> abort_tasks s jid ids = Ok s' -> TE s s'.
Proof.
  intros F H. pose proof (G_abort _ _ _ _ H) as Gs. unfold abort_tasks in H.
  destruct ids as [|i0 ir] eqn:Eids; [inversion H; subst; apply TE_same; reflexivity|]. rewrite <- Eids in *.
  apply bind_ok in H. destruct H as (j & Hj & H). apply bind_ok in H. destruct H as (j1 & Hm & H).
  destruct (check_termination_jt _ _ _ H) as [_ J1].
  match type of H with check_termination (emit (hq_set_job s ?j2) _) _ = _ =>
    eapply (TE_mark s jid j j1 j2 ids JA 206 s' F Gs not_active_A) end;
    [right; right; right; reflexivity | exact Hj | exact Hm | reflexivity | reflexivity | intros id; rewrite J1, jt_emit; reflexivity|].
  rewrite (check_termination_tids _ _ _ H), tids_emit. reflexivity.
Qed.

Lemma TE_set_cancel s jid ids s' : fresh s -> set_cancel_state s jid ids = Ok s' -> TE s s'.
Proof.
  intros F H. pose proof (G_set_cancel _ _ _ _ H) as Gs. unfold set_cancel_state in H.
  destruct ids as [|i0 ir] eqn:Eids; [inversion H; subst; apply TE_same; reflexivity|]. rewrite <- Eids in *.
  apply bind_ok in H. destruct H as (j & Hj & H). apply bind_ok in H. destruct H as (j1 & Hm & H).
  destruct (check_termination_jt _ _ _ H) as [_ J1].
  match type of H with check_termination (emit (emit (hq_set_job s ?j2) _) _) _ = _ =>
    eapply (TE_mark s jid j j1 j2 ids JC 205 s' F Gs not_active_C) end;
    [right; right; left; reflexivity | exact Hj | exact Hm | reflexivity | reflexivity | intros id; rewrite J1, !jt_emit; reflexivity|].
  rewrite (check_termination_tids _ _ _ H), !tids_emit. cbn. rewrite app_nil_r. reflexivity.
Qed.

Lemma TE_worker_lost s w running reason s' : fresh s -> process_worker_lost s w running reason = Ok s' -> TE s s'.
Proof.
  intros F H. pose proof (G_worker_lost _ _ _ _ _ H) as Gs.
  eapply (TE_base s s' []); [exact F | exact Gs | | constructor | intros t []].
  rewrite app_nil_r. unfold process_worker_lost in H. apply bind_ok in H. destruct H as (s1 & H1 & H). inversion H; subst.
  rewrite tids_emit. cbn. rewrite app_nil_r.
  clear -H1. revert s s1 H1. induction running as [|t r IH]; cbn [set_waiting_all]; intros s s1 H; [inversion H; reflexivity|].
  apply bind_ok in H. destruct H as (s0 & H0 & H). rewrite (IH _ _ H).
  unfold set_waiting_state in H0. apply bind_ok in H0. destruct H0 as (j & _ & H0).
  destruct (jt_find _ _) as [[]|]; try discriminate; try (inversion H0; reflexivity).
  apply bind_ok in H0. destruct H0 as (nr & _ & H0). inversion H0; reflexivity.
Qed.

Lemma TF_set_failed s t k j j1 :
  hq_get_job s (fst t) 207 = Ok j -> set_failed j (snd t) = Ok j1 -> TF s (emit (hq_set_job s j1) (OEv (EvFailed t k))).
Proof.
  intros Hj Hj1. destruct (jt_get _ _ _ _ Hj) as [Ej Eid]. pose proof (hq_get_find _ _ _ _ Hj) as Hf.
  set (sB := emit (hq_set_job s j1) (OEv (EvFailed t k))).
  assert (GB : G s sB) by (apply G_JP, JP_emit, (JP_set_job s j); [exact Hf | exact (set_failed_jpres _ _ _ Hj1)]).
  apply TF_intro; [intros _; exact GB|]. intros F.
  unfold set_failed in Hj1. destruct (jt_find (j_tasks j) (snd t)) as [v|] eqn:Ef; [|discriminate].
  assert (Hj1' : j_id j1 = j_id j /\ j_tasks j1 = jt_set (j_tasks j) (snd t) JX /\ jactive (Some v)).
  { destruct v; try discriminate.
    - inversion Hj1; subst. split; [reflexivity|]. split; [reflexivity|]. left; reflexivity.
    - apply bind_ok in Hj1. destruct Hj1 as (nr & _ & Hj1). inversion Hj1; subst.
      split; [reflexivity|]. split; [reflexivity|]. right; reflexivity. }
  destruct Hj1' as (I1 & T1' & Hv).
  eapply (TE_base s sB [t]); [exact F | exact GB | subst sB; rewrite tids_emit; reflexivity | constructor; [intros [] | constructor] |].
  intros x [<-|[]]. split; [exists (j_tasks j); split; [exact Ej | rewrite Ef; exact Hv]|].
  exists JX. split; [|right; left; reflexivity].
  eapply (task_state_set_one s sB t _ JX Ej). intros id. subst sB. rewrite jt_emit, jt_set_job, I1, Eid, T1'. reflexivity.
Qed.

Lemma TE_process_task_failed s t aborted k s' ids : fresh s -> process_task_failed s t aborted k = Ok (s', ids) -> TE s s'.
Proof.
  intros F Hc. refine (proj2 (process_task_failed_rel TF TF_trans _ TF_set_failed _ s t aborted k s' ids Hc F)).
  - intros s0 jid l s1 X. apply TF_intro; [intros _; exact (G_abort _ _ _ _ X) | intros F0; exact (TE_abort _ _ _ _ F0 X)].
  - intros s0 jid s1 X. apply TF_intro; [intros _; exact (G_check_termination _ _ _ X) | intros F0; exact (TE_check_termination _ _ _ F0 X)].
Qed.

Lemma send_worker_snd s w m s' : send_worker s w m = Ok s' -> snd s' = snd s.
Proof. unfold send_worker. destruct (find_proc _ w); [|discriminate]. intros H; inversion H; reflexivity. Qed.
Lemma send_all_snd msgs : forall s s', send_all s msgs = Ok s' -> snd s' = snd s.
Proof.
  induction msgs as [|[w m] r IH]; cbn [send_all]; intros s s' H; [inversion H; reflexivity|].
  apply bind_ok in H. destruct H as (s1 & H1 & H). rewrite (IH _ _ H). eapply send_worker_snd; exact H1.
Qed.
Lemma process_retracted_snd s r s' : process_retracted s r = Ok s' -> snd s' = snd s.
Proof.
  unfold process_retracted. destruct r; [intros H; inversion H; reflexivity|].
  intros H. apply bind_ok in H. destruct H as ([c' groups] & _ & H). apply send_all_snd in H. exact H.
Qed.
Lemma cancel_release_snd ids : forall s tu ru s' tu' ru', cancel_release s ids tu ru = Ok (s', tu', ru') -> snd s' = snd s.
Proof.
  induction ids as [|id r IH]; cbn [cancel_release]; intros s tu ru s' tu' ru' H; [inversion H; reflexivity|].
  destruct (find_task _ id) as [t|]; [|eapply IH; exact H].
  apply bind_ok in H. destruct H as (csm & _ & H). apply bind_ok in H. destruct H as (rq & _ & H).
  destruct (t_state t); try discriminate.
  - rewrite (IH _ _ _ _ _ _ H). reflexivity.
  - inv_binds H. rewrite (IH _ _ _ _ _ _ H). reflexivity.
  - inv_binds H. rewrite (IH _ _ _ _ _ _ H). reflexivity.
  - apply bind_ok in H. destruct H as (c' & _ & H). rewrite (IH _ _ _ _ _ _ H). reflexivity.
  - inv_binds H. rewrite (IH _ _ _ _ _ _ H). reflexivity.
  - apply bind_ok in H. destruct H as (c' & _ & H). destruct ws; [discriminate|]. rewrite (IH _ _ _ _ _ _ H). reflexivity.
Qed.
Lemma on_cancel_tasks_snd s ids s' : on_cancel_tasks s ids = Ok s' -> snd s' = snd s.
Proof.
  unfold on_cancel_tasks. intros H. apply bind_ok in H. destruct H as ([[s1 tu] ru] & H1 & H).
  apply bind_ok in H. destruct H as (c' & _ & H). rewrite (send_all_snd _ _ _ H). cbn. eapply cancel_release_snd; exact H1.
Qed.
Lemma on_new_tasks_snd s ts s' : on_new_tasks s ts = Ok s' -> snd s' = snd s.
Proof.
  unfold on_new_tasks. destruct ts; [intros H; inversion H; reflexivity|].
  intros H. apply bind_ok in H. destruct H as ([c' r] & _ & H). apply bind_ok in H. destruct H as (s1 & H1 & H). inversion H; subst.
  cbn. rewrite (process_retracted_snd _ _ _ H1). reflexivity.
Qed.

Lemma TE_task_failed s w id k s' : fresh s -> task_failed s w id k = Ok s' -> TE s s'.
Proof.
  intros F Hc. destruct (task_failed_job _ _ _ _ _ Hc) as [->|(s0 & ab & s1 & ids & Q & S & Hf & Hs')]; [apply TE_same; reflexivity|].
  assert (T1 : TE s s1).
  { eapply TE_trans; [apply TE_core; [exact Q | exact S]|]. eapply TE_process_task_failed; [eapply fresh_same; [exact Q | exact F] | exact Hf]. }
  destruct Hs' as [->|Hs']; [exact T1|].
  eapply TE_trans; [exact T1|]. apply TE_core; [eapply on_cancel_tasks_hq; exact Hs' | eapply on_cancel_tasks_snd; exact Hs'].
Qed.

Lemma TE_task_finished s w id s' b : fresh s -> task_finished s w id = Ok (s', b) -> TE s s'.
Proof.
  intros F Hc. destruct (task_finished_job _ _ _ _ _ Hc) as [->|(s0 & s1 & c3 & ret & s2 & c4 & Q & S & Hf & Hr & ->)]; [apply TE_same; reflexivity|].
  eapply TE_trans; [apply TE_core; [exact Q | exact S]|].
  eapply TE_trans; [eapply TE_finished; [eapply fresh_same; [exact Q | exact F] | exact Hf]|].
  apply TE_core; [exact (process_retracted_hq _ _ _ Hr) | exact (process_retracted_snd _ _ _ Hr)].
Qed.

Lemma TE_task_running s w id rv s' b : fresh s -> task_running s w id rv = Ok (s', b) -> TE s s'.
Proof.
  intros F Hc. destruct (task_running_started _ _ _ _ _ _ Hc) as [->|(s1 & i & ws & Q & S & Hs)]; [apply TE_same; reflexivity|].
  eapply (TE_trans _ s1); [apply TE_core; assumption | eapply TE_started; [eapply fresh_same; [exact Q | exact F] | exact Hs]].
Qed.

Lemma requeue_snd s t c1 s' b :
  (do (qs, ret) <- add_ready_task (c_queues c1) (with_state t (Waiting 0));
   do s'' <- process_retracted (st_core s (with_queues (upd_task c1 (with_state t (Waiting 0))) qs)) ret;
   Ok (s'', true)) = Ok (s', b) -> snd s' = snd s.
Proof.
  intros Hx. inv_binds Hx. inversion Hx; subst.
  match goal with X : process_retracted _ _ = Ok _ |- _ => rewrite (process_retracted_snd _ _ _ X) end. reflexivity.
Qed.

Lemma task_reject_snd s w id rv s' b : task_reject s w id rv = Ok (s', b) -> snd s' = snd s.
Proof.
  intros Hc. unfold task_reject in Hc.
  destruct (find_task _ id) as [t|]; [|inversion Hc; subst; reflexivity].
  inv_binds Hc.
  destruct (t_state t) eqn:Est; try (eapply requeue_snd; exact Hc).
  match type of Hc with (match ?cont with true => _ | false => _ end) = _ => destruct cont end.
  - match type of Hc with (match ?x with Some _ => _ | None => _ end) = _ => destruct x as [[target rvt]|] end.
    + inv_binds Hc. inversion Hc; subst.
      match goal with X : send_worker _ _ _ = Ok _ |- _ => rewrite (send_worker_snd _ _ _ _ X) end. reflexivity.
    + eapply requeue_snd; exact Hc.
  - inversion Hc; subst. reflexivity.
Qed.

Lemma TF_apply_one s w u s' n : apply_one s w u = Ok (s', n) -> TF s s'.
Proof.
  apply (apply_one_walk TF).
  - intros x w0 id x' b X. apply TF_intro; intros F; [exact (G_task_finished _ _ _ _ _ F X) | exact (TE_task_finished _ _ _ _ _ F X)].
  - intros x w0 id k x' X. apply TF_intro; intros F; [exact (G_task_failed _ _ _ _ _ F X) | exact (TE_task_failed _ _ _ _ _ F X)].
  - intros x w0 id rv x' b X. apply TF_intro; intros F; [exact (G_task_running _ _ _ _ _ _ F X) | exact (TE_task_running _ _ _ _ _ _ F X)].
  - intros x w0 id rv x' b X. exact (TF_core _ _ (task_reject_same _ _ _ _ _ _ X) (task_reject_snd _ _ _ _ _ _ X)).
  - intros x w0 rq rv x' X. apply TF_core; [exact (request_enabled_same _ _ _ _ _ X)|].
    unfold request_enabled in X. inv_binds X. inversion X; reflexivity.
Qed.

Lemma TE_on_task_update s w us s' : fresh s -> on_task_update s w us = Ok s' -> TE s s'.
Proof.
  intros F H. refine (proj2 (on_task_update_rel TF TF_refl TF_trans TF_apply_one s w us s' _ H F)).
  intros x. apply TF_core; reflexivity.
Qed.

Lemma TF_lost_fail_running l s reason s' : lost_fail_running s reason l = Ok s' -> TF s s'.
Proof.
  refine (lost_fail_running_rel TF TF_refl TF_trans _ _ l s reason s').
  - intros. apply TF_core; reflexivity.
  - intros s0 id k s1 _ Hf. apply TF_intro; intros F; [exact (G_task_failed _ _ _ _ _ F Hf) | exact (TE_task_failed _ _ _ _ _ F Hf)].
Qed.

Lemma set_waiting_state_snd s t s' : set_waiting_state s t = Ok s' -> snd s' = snd s.
Proof.
  unfold set_waiting_state. intros H. apply bind_ok in H. destruct H as (j & _ & H).
  destruct (jt_find _ _) as [v|]; [|discriminate]. destruct v; try (inversion H; subst; reflexivity).
  apply bind_ok in H. destruct H as (nr & _ & H). inversion H; subst. reflexivity.
Qed.
Lemma set_waiting_all_snd ts : forall s s', set_waiting_all s ts = Ok s' -> snd s' = snd s.
Proof.
  induction ts as [|t r IH]; cbn [set_waiting_all]; intros s s' H; [inversion H; reflexivity|].
  apply bind_ok in H. destruct H as (s1 & H1 & H). rewrite (IH _ _ H). eapply set_waiting_state_snd; exact H1.
Qed.

Lemma lost_retracting_snd l : forall s w s', lost_retracting s w l = Ok s' -> snd s' = snd s.
Proof.
  induction l as [|id r IH]; cbn [lost_retracting]; intros s w s' H; [inversion H; reflexivity|].
  apply bind_ok in H. destruct H as (t & _ & H).
  destruct (t_state t); try (eapply IH; exact H).
  destruct (N.eqb w w0); [|eapply IH; exact H].
  destruct (find_redirect _ id) as [[target rv]|].
  - apply bind_ok in H. destruct H as (s1 & H1 & H). rewrite (IH _ _ _ H). rewrite (send_worker_snd _ _ _ _ H1). reflexivity.
  - rewrite (IH _ _ _ H). reflexivity.
Qed.

Lemma TE_on_remove_worker s w reason a p t s' : fresh s -> on_remove_worker s w reason a p t = Ok s' -> TE s s'.
Proof.
  intros F Hc.
  refine (proj2 (on_remove_worker_rel TF TF_trans _ _ _ _ _ TF_lost_fail_running _ s w reason a p t s' Hc F));
    try (intros; apply TF_core; reflexivity).
  - intros l s0 w0 s1 X. exact (TF_core _ _ (lost_retracting_same _ _ _ _ X) (lost_retracting_snd _ _ _ _ X)).
  - intros s0 r s1 X. exact (TF_core _ _ (process_retracted_hq _ _ _ X) (process_retracted_snd _ _ _ X)).
  - intros s0 w0 running r s1 X. apply TF_intro; intros F0; [exact (G_worker_lost _ _ _ _ _ X) | exact (TE_worker_lost _ _ _ _ _ F0 X)].
Qed.

Lemma send_redirected_snd gs : forall s s', send_redirected s gs = Ok s' -> snd s' = snd s.
Proof.
  induction gs as [|[target ts] r IH]; cbn [send_redirected]; intros s s' H; [inversion H; reflexivity|].
  apply bind_ok in H. destruct H as (cts & _ & H). apply bind_ok in H. destruct H as (s1 & H1 & H).
  rewrite (IH _ _ H). eapply send_worker_snd; exact H1.
Qed.
Lemma send_mapping_snd m : forall s s', send_mapping s m = Ok s' -> snd s' = snd s.
Proof.
  induction m as [|u r IH]; cbn [send_mapping]; intros s s' H; [inversion H; reflexivity|].
  apply bind_ok in H. destruct H as (s1 & H1 & H).
  apply bind_ok in H. destruct H as (cts1 & _ & H).
  apply bind_ok in H. destruct H as (cts2 & _ & H).
  apply bind_ok in H. destruct H as (s2 & H2 & H).
  rewrite (IH _ _ H).
  assert (E2 : snd s2 = snd s1) by (destruct (cts1 ++ cts2); [inversion H2; reflexivity | eapply send_worker_snd; exact H2]).
  assert (E1 : snd s1 = snd s) by (destruct (wu_retracts u); [inversion H1; reflexivity | eapply send_worker_snd; exact H1]).
  congruence.
Qed.
Lemma send_mn_snd l : forall s s', send_mn s l = Ok s' -> snd s' = snd s.
Proof.
  induction l as [|id r IH]; cbn [send_mn]; intros s s' H; [inversion H; reflexivity|].
  apply bind_ok in H. destruct H as (t & _ & H).
  destruct (t_state t); try discriminate. destruct ws; [discriminate|].
  apply bind_ok in H. destruct H as (s1 & H1 & H).
  rewrite (IH _ _ H). eapply send_worker_snd; exact H1.
Qed.
Lemma run_scheduling_snd s sol s' : run_scheduling s sol = Ok s' -> snd s' = snd s.
Proof.
  unfold run_scheduling. destruct (negb (perm_of_set _ _)); [discriminate|].
  intros H. inv_binds H. inversion H; subst.
  match goal with X : send_mapping _ _ = Ok _ |- _ => apply send_mapping_snd in X; rename X into R1 end.
  match goal with X : send_mn _ _ = Ok _ |- _ => apply send_mn_snd in X; rename X into R2 end.
  cbn in *. congruence.
Qed.

Lemma TE_nil s s' : fresh s -> G s s' -> terminal_ids (snd s') = terminal_ids (snd s) -> TE s s'.
Proof. intros F Gs He. eapply (TE_base s s' []); [exact F | exact Gs | rewrite app_nil_r; exact He | constructor | intros t []]. Qed.

Lemma submit_ok_resp_tids s jid s' : submit_ok_resp s jid = Ok s' -> terminal_ids (snd s') = terminal_ids (snd s).
Proof. unfold submit_ok_resp. intros H. inv_binds H. inversion H; subst. rewrite tids_emit. cbn. rewrite app_nil_r. reflexivity. Qed.

Lemma get_or_create_rq_snd s r : snd (fst (get_or_create_rq s r)) = snd s.
Proof. unfold get_or_create_rq. destruct (rq_index _ r 0); reflexivity. Qed.

Lemma submit_job_tids s jid is_new n mf : terminal_ids (snd (submit_job s jid is_new n mf)) = terminal_ids (snd s).
Proof.
  unfold submit_job. destruct is_new; cbn [snd hq_with]; rewrite tids_emit; cbn [tids_of]; apply app_nil_r.
Qed.

Lemma submit_tail_tids s4 jid ids tasks s' :
  submit_tail s4 jid ids tasks = Ok s' -> terminal_ids (snd s') = terminal_ids (snd s4).
Proof.
  unfold submit_tail. intros H. apply bind_ok in H. destruct H as (j & _ & H). apply bind_ok in H. destruct H as (j' & _ & H).
  apply bind_ok in H. destruct H as (s6 & H6 & H).
  rewrite (submit_ok_resp_tids _ _ _ H), (on_new_tasks_snd _ _ _ H6). reflexivity.
Qed.

Lemma handle_submit_array_tids s jobsel ids entries rq prio cl tlim mf s' :
  handle_submit_array s jobsel ids entries rq prio cl tlim mf = Ok s' -> terminal_ids (snd s') = terminal_ids (snd s).
Proof.
  intros H. destruct (handle_submit_array_spec _ _ _ _ _ _ _ _ _ _ H) as [(c & a & ->)|(jid & is_new & ids' & s4 & rqi & _ & _ & Erq & Hc')].
  - rewrite tids_emit. apply app_nil_r.
  - rewrite (submit_tail_tids _ _ _ _ _ Hc').
    pose proof (get_or_create_rq_snd (submit_job s jid is_new (N.of_nat (length ids')) mf) rq) as S4.
    rewrite Erq in S4. cbn [fst] in S4. rewrite S4. apply submit_job_tids.
Qed.

Lemma fold_rqs_snd rqs : forall s l s4 rqis,
  fold_left (fun acc r => let '(s, l) := acc in let '(s', i) := get_or_create_rq s r in (s', l ++ [i])) rqs (s, l) = (s4, rqis) ->
  snd s4 = snd s.
Proof.
  induction rqs as [|r rest IH]; cbn [fold_left]; intros s l s4 rqis H; [inversion H; reflexivity|].
  destruct (get_or_create_rq s r) as [s1 i] eqn:E. rewrite (IH _ _ _ _ H).
  pose proof (get_or_create_rq_snd s r) as T. rewrite E in T. exact T.
Qed.

Lemma handle_submit_graph_tids s jobsel rqs ts mf s' :
  handle_submit_graph s jobsel rqs ts mf = Ok s' -> terminal_ids (snd s') = terminal_ids (snd s).
Proof.
  intros H. destruct (handle_submit_graph_spec _ _ _ _ _ _ H) as [(r & ->)|(jid & is_new & s4 & rqis & tasks & _ & Erq & _ & Hc')].
  - rewrite tids_emit. apply app_nil_r.
  - rewrite (submit_tail_tids _ _ _ _ _ Hc'), (fold_rqs_snd _ _ _ _ _ Erq). apply submit_job_tids.
Qed.

Lemma tids_launch ls : flat_map tids_of (map OLaunch ls) = [].
Proof. induction ls as [|l r IH]; [reflexivity | exact IH]. Qed.

Theorem TE_step s o s' outs : fresh (s, []) -> step s o = Ok (s', outs) -> TE (s, []) (s', outs).
Proof.
  intros F H. revert F.
  refine (step_walk (fun x x' => fresh x -> TE x x') (fun _ => True) _ _ _ _ _ _ _ _ _ _ _ _ _ _ _ _ s o s' outs I H);
    try (intros; apply TE_same; reflexivity).
  - intros s0 rs g s1 _ X F. apply (TE_nil _ _ F (G_same _ _ (on_new_worker_same _ _ _ _ X))).
    unfold on_new_worker in X. inversion X; subst. reflexivity.
  - intros s0 w r a p t pw s1 _ _ X F. exact (TE_on_remove_worker _ _ _ _ _ _ _ F X).
  - intros s0 job ids entries rq prio cl tlim mf s1 _ X F.
    exact (TE_nil _ _ F (G_submit_array _ _ _ _ _ _ _ _ _ _ F X) (handle_submit_array_tids _ _ _ _ _ _ _ _ _ _ X)).
  - intros s0 job rqs ts mf s1 _ X F. exact (TE_nil _ _ F (G_submit_graph _ _ _ _ _ _ F X) (handle_submit_graph_tids _ _ _ _ _ _ X)).
  - intros s0 mf s1 _ X F. apply (TE_nil _ _ F (G_open _ _ _ F X)). unfold handle_open in X. inversion X; subst. reflexivity.
  - intros s0 j s1 _ X F. apply (TE_nil _ _ F (G_close _ _ _ X)). unfold handle_close in X.
    destruct (find_job _ j) as [jb|]; [|inversion X; subst; reflexivity].
    destruct (j_open jb); [|inversion X; subst; reflexivity].
    apply bind_ok in X. destruct X as (s2 & H1 & X). inversion X; subst.
    rewrite tids_emit. cbn. rewrite app_nil_r. rewrite (check_termination_tids _ _ _ H1). reflexivity.
  - intros s0 j s1 _ X F. refine (proj2 (handle_cancel_rel TF TF_trans _ _ _ _ _ _ X F)).
    + intros x r. apply TF_intro; intros _; [apply G_same; reflexivity | apply TE_same; [reflexivity | rewrite tids_emit; apply app_nil_r]].
    + intros x ids x' Y. exact (TF_core _ _ (on_cancel_tasks_hq _ _ _ Y) (on_cancel_tasks_snd _ _ _ Y)).
    + intros x jid ids x' Y. apply TF_intro; intros F0; [exact (G_set_cancel _ _ _ _ Y) | exact (TE_set_cancel _ _ _ _ F0 Y)].
  - intros s0 j s1 _ X F. apply (TE_nil _ _ F (G_forget _ _ _ X)). unfold handle_forget in X.
    destruct (find_job _ j) as [jb|]; [|inversion X; subst; reflexivity].
    apply bind_ok in X. destruct X as (na & _ & X). destruct (negb (j_open jb) && na); inversion X; subst; reflexivity.
  - intros s0 w p m rest s1 _ _ _ X F.
    apply (TE_trans _ (with_procs s0 (set_proc (s_procs s0) (wp_up p rest)), [OUp w m])); [apply TE_same; reflexivity|]. destruct m.
    + eapply TE_on_task_update; [|exact X]. exact F.
    + apply TE_core; [eapply on_retract_response_same; exact X|].
      unfold on_retract_response in X. destruct (retract_response_states _ w ids []) as [c' groups].
      apply bind_ok in X. destruct X as (s2 & X & H2).
      assert (Es : snd s1 = snd s2) by (destruct (retract_wakes _ _ _ _); inversion H2; subst; reflexivity).
      rewrite Es, (send_redirected_snd _ _ _ X). reflexivity.
  - intros s0 sol s1 _ _ X _. apply TE_core; [eapply run_scheduling_same; exact X | eapply run_scheduling_snd; exact X].
  - intros s0 w order p m rest p' ls _ _ _ _ _. apply TE_same; [reflexivity|]. unfold terminal_ids. cbn. apply tids_launch.
  - intros s0 w t how p p' ls _ _ _ _. apply TE_same; [reflexivity|]. unfold terminal_ids. cbn. apply tids_launch.
Qed.

Definition ONCE (s : st) : Prop := forall t, (tcount (snd s) t <= 1)%nat /\ (tcount (snd s) t = 1%nat -> dead s t).

Lemma TE_ONCE s s' : TE s s' -> ONCE s -> ONCE s'.
Proof.
  intros T O t. destruct (T t) as [T1 T2], (O t) as [O1 O2].
  destruct T2 as [E|[E D]].
  - rewrite E. split; [exact O1|]. intros H1. destruct (T1 (O2 H1)) as [D _]. exact D.
  - assert (tcount (snd s) t = 0%nat) as Z.
    { destruct (Nat.eq_dec (tcount (snd s) t) 1) as [H1|H1]; [|lia].
      destruct (T1 (O2 H1)) as [_ E']. lia. }
    rewrite E, Z. split; [lia | intros _; exact D].
Qed.

(** Shifting the stream: a step starts with an empty output list, [run] concatenates. *)
Lemma TE_shift s s' pre outs : TE (s, []) (s', outs) -> TE (s, pre) (s', pre ++ outs).
Proof.
  intros T t. destruct (T t) as [T1 T2]. cbn [snd] in *.
  assert (Z : tcount [] t = 0%nat) by reflexivity. rewrite Z in T1, T2. rewrite tcount_app.
  split.
  - intros D. destruct (T1 D) as [D' E]. split; [exact D' | lia].
  - destruct T2 as [E|[E D]]; [left; lia | right; split; [lia | exact D]].
Qed.

Theorem run_ONCE ops : forall s pre s' outs,
  fresh (s, []) -> ONCE (s, pre) -> run s ops = Ok (s', outs) -> ONCE (s', pre ++ outs).
Proof.
  induction ops as [|o r IH]; cbn [run]; intros s pre s' outs F O H; [inversion H; subst; rewrite app_nil_r; exact O|].
  apply bind_ok in H. destruct H as ([s1 o1] & H1 & H). apply bind_ok in H. destruct H as ([s2 o2] & H2 & H). inversion H; subst.
  pose proof (TE_step _ _ _ _ F H1) as T1.
  pose proof (G_step _ _ _ _ F H1) as G1.
  assert (F1 : fresh (s1, [])) by (apply (fresh_outs s1 o1); apply (g_fresh _ _ G1); exact F).
  rewrite app_assoc. eapply IH; [exact F1 | | exact H2].
  eapply TE_ONCE; [apply TE_shift; exact T1 | exact O].
Qed.

(** C01, "reported once": in the events of ANY history of the system, every task is named by at
    most one terminal event, and then the job layer records an outcome for it (or its job has been
    forgotten and its id retired). *)
Theorem terminal_event_once ops reserve maxfill s outs t :
  run (init_sys reserve maxfill) ops = Ok (s, outs) ->
  (count_occ tid_dec (terminal_ids outs) t <= 1)%nat /\
  (count_occ tid_dec (terminal_ids outs) t = 1%nat ->
     (exists v, task_state (s, []) t = Some v /\ terminal v) \/ find_job (h_jobs (s_hq s)) (fst t) = None).
Proof.
  intros H.
  assert (F0 : fresh (init_sys reserve maxfill, [])) by (intros j []).
  assert (O0 : ONCE (init_sys reserve maxfill, [])) by (intros x; split; [cbn; lia | cbn; discriminate]).
  pose proof (run_ONCE _ _ _ _ _ F0 O0 H) as O. cbn [app] in O. destruct (O t) as [O1 O2]. split; [exact O1|].
  intros E. destruct (O2 E) as [D|[D _]]; [left; exact D | right; exact D].
Qed.

(** Non-vacuity: a history in which a task finishes. *)
Definition once_rq : rqdef := mkRq 0 [10000; 0; 0].
Definition once_ops : list op :=
  [OpConnect [20000; 0; 0] 0;
   OpSubmit None [] None once_rq 0%Z (CMax 3) false None;
   OpSched (mkSol [(0, 0, [(1, 1)])] [] [1] []);
   OpDDown 1 []; OpDDown 1 []; OpDUp 1; OpEnd 1 (1, 0) EndOk; OpDUp 1].

Lemma once_example : exists s outs, run (init_sys 0 2) once_ops = Ok (s, outs)
  /\ terminal_ids outs = [(1, 0)] /\ task_state (s, []) (1, 0) = Some JF.
Proof. do 2 eexists. split; [vm_compute; reflexivity|]. split; vm_compute; reflexivity. Qed.
