(** The reactor and server functions cut into their pieces.

    Every property of the event stream is proved by carrying some relation between server states
    through the functions of the model.  What such a proof needs to know of a function is the
    same each time: which job-layer calls it makes, in which order, on which intermediate states,
    and that the pieces in between touch only the core (or only its worker / queue bookkeeping).
    This file says that once per function:
    a SPLIT lemma for [task_failed], [task_finished], [task_running], [on_remove_worker] - a
    successful run, with the intermediate states named - after the RELEASE step that the first two
    share with [on_cancel_tasks] ([released]); at the end, the LIFT of a property of single steps
    through the loops of a scheduling round.  (The closure lemmas for the loops of the reactor and
    the case split over the operations of [step] are in StepShape.v.) *)
From HQ Require Import Base.Prelude Cluster.Types Cluster.Core Cluster.Reactor Cluster.Worker Cluster.Server Cluster.Sys Cluster.ProofsJob Cluster.ProofsStep Cluster.BijBase Cluster.BijCore Cluster.BijSt Cluster.BijReact Cluster.ProofsOnce Cluster.RejHyp.
From HQ Require Export Cluster.StepShape.
From HQ Require Import Cluster.ModelFacts.
From Coq Require Import ZArith.
Local Open Scope N_scope.

Arguments N.add : simpl never.
Arguments N.sub : simpl never.

(** [task_finished], [task_failed] and [on_cancel_tasks] first take the task out of the sets of the
    worker(s) holding it, by the same cases on its state; [released c id rq t c1] is that step
    ([rq] = the request of the task: its resources go back to the worker). *)
Inductive released (c : core) (id : tid) (rq : rqdef) (t : task) : core -> Prop :=
| rel_none : match t_state t with Waiting _ | Finished => True | _ => False end -> released c id rq t c
| rel_assigned w wk wk' :
    match t_state t with Assigned w1 _ | Running w1 _ => w1 = w | _ => False end ->
    get_worker (c_workers c) w = Ok wk -> remove_sn_task wk id (rq_res rq) = Ok wk' -> released c id rq t (upd_worker c wk')
| rel_prefilled w q q' wk wk' :
    t_state t = Prefilled w ->
    nth_queue (c_queues c) (N.to_nat (t_rq t)) = Ok q -> q_remove_prefilled q id = Ok q' ->
    get_worker (c_workers c) w = Ok wk -> remove_prefill_task wk id = Ok wk' ->
    released c id rq t (upd_worker (with_queues c (set_queue (c_queues c) (N.to_nat (t_rq t)) q')) wk')
| rel_retracting w c1 : t_state t = Retracting w -> try_remove_redirection c t = Ok c1 -> released c id rq t c1
| rel_mn ws c1 : t_state t = RunningMN ws -> reset_mn_all c ws = Ok c1 -> released c id rq t c1
| rel_mn_checked ws c1 : t_state t = RunningMN ws -> reset_mn_workers c ws id = Ok c1 -> released c id rq t c1.

Lemma released_tasks c id rq t c1 : released c id rq t c1 -> c_tasks c1 = c_tasks c.
Proof.
  intros [Hs | w wk wk' Hs Hw Hrm | w q q' wk wk' Hs Hq Hq' Hw Hrm | w c2 Hs H1 | ws c2 Hs H1 | ws c2 Hs H1]; try reflexivity.
  - exact (try_remove_redirection_tasks _ _ _ H1).
  - exact (reset_mn_all_tasks _ _ _ H1).
  - exact (reset_mn_workers_tasks _ _ _ _ H1).
Qed.

Lemma finished_release c w id t rq c1 :
  match t_state t with
  | Assigned w1 _ | Running w1 _ =>
      if negb (N.eqb w1 w) then Panic 172
      else do wk <- get_worker (c_workers c) w; do wk' <- remove_sn_task wk id (rq_res rq); Ok (upd_worker c wk')
  | RunningMN ws => match ws with w0 :: _ => if N.eqb w0 w then reset_mn_workers c ws id else Panic 172 | [] => Panic 172 end
  | Retracting w1 => if negb (N.eqb w1 w) then Panic 172 else try_remove_redirection c t
  | _ => Panic 173
  end = Ok c1 -> released c id rq t c1.
Proof.
  intros H. destruct (t_state t) as [n|w1 rv1|w1|w1|w1 rv1|ws|] eqn:Est; try discriminate.
  - destruct (N.eqb w1 w) eqn:E; [|discriminate]. apply N.eqb_eq in E. cbn [negb] in H. inv_binds H. inversion H; subst.
    eapply rel_assigned; [rewrite Est; reflexivity | eassumption | eassumption].
  - destruct (negb (N.eqb w1 w)); [discriminate|]. eapply rel_retracting; eassumption.
  - destruct (N.eqb w1 w) eqn:E; [|discriminate]. apply N.eqb_eq in E. cbn [negb] in H. inv_binds H. inversion H; subst.
    eapply rel_assigned; [rewrite Est; reflexivity | eassumption | eassumption].
  - destruct ws as [|w0 wr] eqn:Ews; [discriminate|]. destruct (N.eqb w0 w); [|discriminate]. rewrite <- Ews in *.
    eapply rel_mn_checked; eassumption.
Qed.

(** [task_failed] has one more outcome: a task placed as a multi-node task whose request is a
    single-node one is not released at all (InvWWitness.v). *)
Lemma failed_release c w id t rq c1 :
  match w with
  | Some wkr =>
      if rq_is_mn rq then
        match t_state t with
        | RunningMN ws => match ws with w0 :: _ => if N.eqb w0 wkr then reset_mn_workers c ws id else Panic 165 | [] => Panic 165 end
        | _ => Panic 166
        end
      else
        match t_state t with
        | Assigned w1 _ | Running w1 _ =>
            if negb (N.eqb wkr w1) then Panic 167
            else do wk <- get_worker (c_workers c) wkr; do wk' <- remove_sn_task wk id (rq_res rq); Ok (upd_worker c wk')
        | Prefilled w1 =>
            if negb (N.eqb wkr w1) then Panic 167
            else do q <- nth_queue (c_queues c) (N.to_nat (t_rq t));
                 do q' <- q_remove_prefilled q id;
                 do wk <- get_worker (c_workers c) wkr;
                 do wk' <- remove_prefill_task wk id;
                 Ok (upd_worker (with_queues c (set_queue (c_queues c) (N.to_nat (t_rq t)) q')) wk')
        | Retracting w1 => if negb (N.eqb wkr w1) then Panic 167 else try_remove_redirection c t
        | _ => Ok c
        end
  | None => if is_waiting t then Ok c else Panic 168
  end = Ok c1 ->
  released c id rq t c1 \/ (c1 = c /\ w <> None /\ rq_is_mn rq = false /\ exists ws, t_state t = RunningMN ws).
Proof.
  intros H. destruct w as [wkr|].
  - destruct (rq_is_mn rq).
    + destruct (t_state t) as [n|w1 rv1|w1|w1|w1 rv1|ws|] eqn:Est; try discriminate.
      destruct ws as [|w0 wr] eqn:Ews; [discriminate|]. destruct (N.eqb w0 wkr); [|discriminate]. rewrite <- Ews in *.
      left. eapply rel_mn_checked; eassumption.
    + destruct (t_state t) as [n|w1 rv1|w1|w1|w1 rv1|ws|] eqn:Est.
      * inversion H; subst. left. apply rel_none. rewrite Est. exact I.
      * destruct (N.eqb wkr w1) eqn:E; [|discriminate]. apply N.eqb_eq in E. cbn [negb] in H. inv_binds H. inversion H; subst.
        left. eapply rel_assigned; [rewrite Est; reflexivity | eassumption | eassumption].
      * destruct (N.eqb wkr w1) eqn:E; [|discriminate]. apply N.eqb_eq in E. cbn [negb] in H. inv_binds H. inversion H; subst.
        left. eapply rel_prefilled; eassumption.
      * destruct (negb (N.eqb wkr w1)); [discriminate|]. left. eapply rel_retracting; eassumption.
      * destruct (N.eqb wkr w1) eqn:E; [|discriminate]. apply N.eqb_eq in E. cbn [negb] in H. inv_binds H. inversion H; subst.
        left. eapply rel_assigned; [rewrite Est; reflexivity | eassumption | eassumption].
      * inversion H; subst. right. split; [reflexivity|]. split; [discriminate|]. split; [reflexivity | eauto].
      * inversion H; subst. left. apply rel_none. rewrite Est. exact I.
  - unfold is_waiting in H. left. destruct (t_state t) eqn:Est; inversion H; subst. apply rel_none. rewrite Est. exact I.
Qed.

Lemma cancel_release_step s id r tu ru res : cancel_release s (id :: r) tu ru = Ok res ->
  (find_task (c_tasks (core_of s)) id = None /\ cancel_release s r tu ru = Ok res) \/
  exists t rq c1 s1 tu1 ru1, find_task (c_tasks (core_of s)) id = Some t /\ get_rq (c_rqs (core_of s)) (t_rq t) = Ok rq /\
    t_state t <> Finished /\ released (core_of s) id rq t c1 /\
    (core_of s1 = c1 \/ core_of s1 = with_flag c1 true) /\ cancel_release s1 r tu1 ru1 = Ok res.
Proof.
  cbn [cancel_release]. intros H. set (c := core_of s) in *.
  destruct (find_task (c_tasks c) id) as [t|] eqn:Ef; [right | left; auto]. exists t.
  apply bind_ok in H. destruct H as (csm & _ & H). apply bind_ok in H. destruct H as (rq & Hrq & H). exists rq.
  destruct (t_state t) as [n|w1 rv1|w1|w1|w1 rv1|ws|] eqn:Est; [| | | | | |discriminate].
  - exists c. do 3 eexists. split; [reflexivity|]. split; [exact Hrq|]. split; [discriminate|]. split; [apply rel_none; rewrite Est; exact I|]. split; [|exact H]. auto.
  - inv_binds H. eexists. do 3 eexists. split; [reflexivity|]. split; [exact Hrq|]. split; [discriminate|].
    split; [eapply rel_assigned; [rewrite Est; reflexivity | eassumption | eassumption]|]. split; [|exact H]. auto.
  - inv_binds H. eexists. do 3 eexists. split; [reflexivity|]. split; [exact Hrq|]. split; [discriminate|].
    split; [eapply rel_prefilled; eassumption|]. split; [|exact H]. auto.
  - apply bind_ok in H. destruct H as (c' & Hc' & H). exists c'. do 3 eexists. split; [reflexivity|]. split; [exact Hrq|]. split; [discriminate|].
    split; [eapply rel_retracting; eassumption|]. split; [|exact H]. auto.
  - inv_binds H. eexists. do 3 eexists. split; [reflexivity|]. split; [exact Hrq|]. split; [discriminate|].
    split; [eapply rel_assigned; [rewrite Est; reflexivity | eassumption | eassumption]|]. split; [|exact H]. auto.
  - apply bind_ok in H. destruct H as (c' & Hc' & H). destruct ws as [|w0 wr] eqn:Ews; [discriminate|]. rewrite <- Ews in *.
    exists c'. do 3 eexists. split; [reflexivity|]. split; [exact Hrq|]. split; [discriminate|]. split; [eapply rel_mn; eassumption|]. split; [|exact H]. auto.
Qed.

Lemma task_failed_released s w id k s' t :
  task_failed s w id k = Ok s' -> find_task (c_tasks (core_of s)) id = Some t ->
  exists rq c1, get_rq (c_rqs (core_of s)) (t_rq t) = Ok rq /\
    (released (core_of s) id rq t c1 \/ (c1 = core_of s /\ w <> None /\ rq_is_mn rq = false /\ exists ws, t_state t = RunningMN ws)) /\
    exists csm c2 c3 stt s1 ids,
      recursive_consumers (c_tasks c1) t = Ok csm /\ remove_waiting_consumers c1 csm = Ok c2 /\
      remove_task c2 id = Ok (c3, stt) /\
      match w, stt with
      | Some _, (Assigned _ _ | Prefilled _ | Retracting _ | Running _ _ | RunningMN _) | None, Waiting _ => True
      | _, _ => False
      end /\
      process_task_failed (st_core s c3) id csm k = Ok (s1, ids) /\
      match ids with [] => s' = s1 | _ => on_cancel_tasks s1 ids = Ok s' end.
Proof.
  intros H Ef. unfold task_failed in H. rewrite Ef in H.
  apply bind_ok in H. destruct H as (rq & Hrq & H). apply bind_ok in H. destruct H as (c1 & H1 & H).
  exists rq, c1. split; [exact Hrq|]. split; [exact (failed_release _ _ _ _ _ _ H1)|].
  apply bind_ok in H. destruct H as (csm & Hcs & H). apply bind_ok in H. destruct H as (c2 & H2 & H).
  apply bind_ok in H. destruct H as ([c3 stt] & H3 & H). apply bind_ok in H. destruct H as (u & Hu & H).
  apply bind_ok in H. destruct H as ([s1 ids] & H4 & H).
  exists csm, c2, c3, stt, s1, ids. repeat split; try assumption.
  - destruct w, stt; try discriminate; exact I.
  - destruct ids; [inversion H; reflexivity | exact H].
Qed.

Lemma task_finished_released s w id s' b t :
  task_finished s w id = Ok (s', b) -> find_task (c_tasks (core_of s)) id = Some t ->
  exists rq c1 s1 c3 retracted s2 c4,
    get_rq (c_rqs (core_of s)) (t_rq t) = Ok rq /\ released (core_of s) id rq t c1 /\
    process_task_finished (st_core s (upd_task c1 (with_state t Finished))) id = Ok s1 /\
    wake_consumers (core_of s1) (t_consumers (with_state t Finished)) [] = Ok (c3, retracted) /\
    process_retracted (st_core s1 c3) retracted = Ok s2 /\
    remove_task (core_of s2) id = Ok (c4, Finished) /\
    s' = st_core s2 c4 /\ b = true.
Proof.
  intros H Ef. unfold task_finished in H. rewrite Ef in H.
  apply bind_ok in H. destruct H as (rq & Hrq & H). apply bind_ok in H. destruct H as (c1 & H1 & H).
  cbv zeta in H.
  apply bind_ok in H. destruct H as (s1 & Hf & H). apply bind_ok in H. destruct H as ([c3 retracted] & Hw & H).
  apply bind_ok in H. destruct H as (s2 & Hr & H). apply bind_ok in H. destruct H as ([c4 stt] & Hrm & H).
  destruct stt; try discriminate. inversion H; subst.
  exists rq, c1, s1, c3, retracted, s2, c4. repeat split; try assumption. exact (finished_release _ _ _ _ _ _ H1).
Qed.

(** [task_failed]: the reporting worker's bookkeeping is released ([c1], same tasks), the waiting
    transitive consumers and the task are removed from the core, the job layer is told, and the
    tasks it wants cancelled (failure limit) are cancelled in the core. *)
Lemma task_failed_split s w id k s' :
  task_failed s w id k = Ok s' ->
  match find_task (c_tasks (core_of s)) id with
  | None => s' = s
  | Some t =>
      exists c1 csm c2 c3 stt s1 ids,
        c_tasks c1 = c_tasks (core_of s) /\
        recursive_consumers (c_tasks c1) t = Ok csm /\
        remove_waiting_consumers c1 csm = Ok c2 /\
        remove_task c2 id = Ok (c3, stt) /\
        process_task_failed (st_core s c3) id csm k = Ok (s1, ids) /\
        match ids with [] => s' = s1 | _ => on_cancel_tasks s1 ids = Ok s' end
  end.
Proof.
  intros H. destruct (find_task (c_tasks (core_of s)) id) as [t|] eqn:Ef; [|unfold task_failed in H; rewrite Ef in H; inversion H; reflexivity].
  destruct (task_failed_released _ _ _ _ _ _ H Ef) as (rq & c1 & _ & Hrel & csm & c2 & c3 & stt & s1 & ids & Hcs & H2 & H3 & _ & H4 & H5).
  exists c1, csm, c2, c3, stt, s1, ids. repeat split; try assumption.
  destruct Hrel as [Hrel | (-> & _)]; [exact (released_tasks _ _ _ _ _ Hrel) | reflexivity].
Qed.

(** [task_finished]: the worker's bookkeeping is released ([c1], same tasks), the task becomes
    [Finished] in the core, the job layer is told, the consumers are woken, the task is removed. *)
Lemma task_finished_split s w id s' b :
  task_finished s w id = Ok (s', b) ->
  match find_task (c_tasks (core_of s)) id with
  | None => s' = s
  | Some t =>
      exists c1 s1 c3 retracted s2 c4,
        c_tasks c1 = c_tasks (core_of s) /\
        process_task_finished (st_core s (upd_task c1 (with_state t Finished))) id = Ok s1 /\
        wake_consumers (core_of s1) (t_consumers (with_state t Finished)) [] = Ok (c3, retracted) /\
        process_retracted (st_core s1 c3) retracted = Ok s2 /\
        remove_task (core_of s2) id = Ok (c4, Finished) /\
        s' = st_core s2 c4
  end.
Proof.
  intros H. destruct (find_task (c_tasks (core_of s)) id) as [t|] eqn:Ef; [|unfold task_finished in H; rewrite Ef in H; inversion H; reflexivity].
  destruct (task_finished_released _ _ _ _ _ _ H Ef) as (rq & c1 & s1 & c3 & retracted & s2 & c4 & _ & Hrel & Hf & Hw & Hr & Hrm & E & _).
  exists c1, s1, c3, retracted, s2, c4. repeat split; try assumption. exact (released_tasks _ _ _ _ _ Hrel).
Qed.

(** [task_running]: the core records the task as running on [w] - unless it is a multi-node task,
    which the core shows running since it was placed - and the job layer is told.  [s1] differs
    from [s] in the core only; in the first case its task map is that of [s] with [t] set to
    [Running w rv], and [t] was assigned, prefilled or being retracted. *)
Lemma task_running_split s w id rv s' b :
  task_running s w id rv = Ok (s', b) ->
  match find_task (c_tasks (core_of s)) id with
  | None => s' = s
  | Some t =>
      exists s1 ws,
        hq_of s1 = hq_of s /\ snd s1 = snd s /\
        process_task_started s1 id (t_inst t) ws rv = Ok s' /\
        ((ws = [w] /\
          match t_state t with Assigned _ _ | Prefilled _ | Retracting _ => True | _ => False end /\
          exists c1, c_tasks c1 = c_tasks (core_of s) /\
                     c_tasks (core_of s1) = c_tasks (upd_task c1 (with_state t (Running w rv))))
         \/ (s1 = s /\ exists rest, ws = w :: rest /\ t_state t = RunningMN ws))
  end.
Proof.
  intros H. unfold task_running in H.
  destruct (find_task (c_tasks (core_of s)) id) as [t|]; [|inversion H; reflexivity].
  apply bind_ok in H. destruct H as (rq & _ & H). apply bind_ok in H. destruct H as ([s1 ws] & H1 & H).
  apply bind_ok in H. destruct H as (s2 & H2 & H). inversion H; subst s2 b. clear H.
  exists s1, ws.
  destruct (t_state t) as [n|w1 rv1|w1|w1|w1 rv1|ws1|]; try discriminate.
  - destruct (negb (N.eqb w1 w)); [discriminate|]. destruct (negb (N.eqb rv1 rv)); [discriminate|]. inversion H1; subst s1 ws.
    repeat split; try assumption. left. repeat split. exists (core_of s). split; reflexivity.
  - destruct (negb (N.eqb w1 w)); [discriminate|]. inv_binds H1. inversion H1; subst s1 ws.
    repeat split; try assumption. left. repeat split. exists (core_of s). split; reflexivity.
  - destruct (negb (N.eqb w1 w)); [discriminate|].
    apply bind_ok in H1. destruct H1 as (c1 & Hc1 & H1). inv_binds H1. inversion H1; subst s1 ws.
    repeat split; try assumption. left. repeat split. exists c1.
    split; [exact (try_remove_redirection_tasks _ _ _ Hc1) | reflexivity].
  - destruct ws1 as [|w0 rest]; [discriminate|]. destruct (N.eqb w0 w) eqn:Ew; [|discriminate]. inversion H1; subst s1 ws.
    apply N.eqb_eq in Ew. subst w0. repeat split; try assumption. right. split; [reflexivity|]. exists rest. split; reflexivity.
Qed.

(** [broadcast s4 (DLostWorker w)] is the state in which the job layer is told about the loss:
    up to there only the core and the channels have changed. *)
Lemma on_remove_worker_split s w reason ao po to s' :
  on_remove_worker s w reason ao po to = Ok s' ->
  exists wk c2 running retracted s3 s4 s6 s7,
    find_worker (c_workers (core_of s)) w = Some wk /\
    lost_sets (with_workers (core_of s) (del_worker (c_workers (core_of s)) w)) w wk ao po = Ok (c2, running, retracted) /\
    lost_retracting (st_core (with_procs (fst s) (del_proc (s_procs (fst s)) w), snd s) c2) w to = Ok s3 /\
    process_retracted s3 retracted = Ok s4 /\
    hq_of s4 = hq_of s /\ snd s4 = snd s /\
    process_worker_lost (broadcast s4 (DLostWorker w)) w running reason = Ok s6 /\
    lost_fail_running s6 reason running = Ok s7 /\
    s' = ask_scheduling s7.
Proof.
  intros H. unfold on_remove_worker in H.
  destruct (find_worker (c_workers (core_of s)) w) as [wk|]; [|discriminate].
  apply bind_ok in H. destruct H as ([[c2 running] retracted] & Hr & H).
  destruct (negb (perm_of_set to _)); [discriminate|].
  apply bind_ok in H. destruct H as (s3 & H3 & H). apply bind_ok in H. destruct H as (s4 & H4 & H).
  apply bind_ok in H. destruct H as (s6 & H6 & H). apply bind_ok in H. destruct H as (s7 & H7 & H). inversion H; subst s'.
  exists wk, c2, running, retracted, s3, s4, s6, s7. repeat split; try assumption.
  - rewrite (process_retracted_hq _ _ _ H4). exact (lost_retracting_same _ _ _ _ H3).
  - rewrite (process_retracted_snd _ _ _ H4). exact (lost_retracting_snd _ _ _ _ H3).
Qed.

(** [P] relates the core before and after a step; if it holds of [map_one], [prefill_mark] and of a
    change of the queues, and composes, it holds of the loops of a scheduling round. *)
Section SchedLift.
Variable P : core -> core -> Prop.
Hypothesis P_refl : forall c, P c c.
Hypothesis P_trans : forall c1 c2 c3, P c1 c2 -> P c2 c3 -> P c1 c3.
Hypothesis P_queues : forall c qs, P c (with_queues c qs).
Hypothesis P_map_one : forall c m id w v rqres c' m', map_one c m id w v rqres = Ok (c', m') -> P c c'.
Hypothesis P_prefill_mark : forall l c w c', prefill_mark c w l = Ok c' -> P c c'.

Lemma rr_pass_lift counts : forall c m tasks v rqres c' m' counts' rest,
  rr_pass c m counts tasks v rqres = Ok (c', m', counts', rest) -> P c c'.
Proof.
  induction counts as [|[w n] r IH]; intros c m tasks v rqres c' m' counts' rest H.
  - destruct tasks; cbn [rr_pass] in H; inversion H; subst; apply P_refl.
  - destruct tasks as [|id tl]; cbn [rr_pass] in H; [inversion H; subst; apply P_refl|].
    destruct (N.ltb 0 n).
    + apply bind_ok in H. destruct H as ([c1 m1] & H1 & H).
      apply bind_ok in H. destruct H as ([[[c2 m2] r'] tl'] & H2 & H). inversion H; subst.
      exact (P_trans _ _ _ (P_map_one _ _ _ _ _ _ _ _ H1) (IH _ _ _ _ _ _ _ _ _ H2)).
    + apply bind_ok in H. destruct H as ([[[c2 m2] r'] tl'] & H2 & H). inversion H; subst. exact (IH _ _ _ _ _ _ _ _ _ H2).
Qed.

Lemma rr_loop_lift fuel : forall c m counts tasks v rqres c' m', rr_loop fuel c m counts tasks v rqres = Ok (c', m') -> P c c'.
Proof.
  induction fuel as [|k IH]; intros c m counts tasks v rqres c' m' H; destruct tasks as [|id tl]; cbn [rr_loop] in H;
    try (inversion H; subst; apply P_refl); try discriminate.
  apply bind_ok in H. destruct H as ([[[c1 m1] counts1] rest] & H1 & H).
  exact (P_trans _ _ _ (rr_pass_lift _ _ _ _ _ _ _ _ _ _ H1) (IH _ _ _ _ _ _ _ _ H)).
Qed.

Lemma map_sn_lift sol l : forall c m c' m', map_sn c m sol l = Ok (c', m') -> P c c'.
Proof.
  induction l as [|[[rq v] counts] r IH]; cbn [map_sn]; intros c m c' m' H; [inversion H; subst; apply P_refl|].
  apply bind_ok in H. destruct H as (rqd & _ & H). apply bind_ok in H. destruct H as (q & _ & H).
  apply bind_ok in H. destruct H as ([tasks q'] & _ & H). apply bind_ok in H. destruct H as ([c2 m2] & H2 & H).
  exact (P_trans _ _ _ (P_queues _ _) (P_trans _ _ _ (rr_loop_lift _ _ _ _ _ _ _ _ _ H2) (IH _ _ _ _ H))).
Qed.

Lemma prefill_workers_lift ws : forall c m qi psize c' m', prefill_workers c m qi psize ws = Ok (c', m') -> P c c'.
Proof.
  induction ws as [|w r IH]; cbn [prefill_workers]; intros c m qi psize c' m' H; [inversion H; subst; apply P_refl|].
  apply bind_ok in H. destruct H as (q & _ & H). apply bind_ok in H. destruct H as ([ids q'] & _ & H).
  apply bind_ok in H. destruct H as (c2 & H2 & H).
  exact (P_trans _ _ _ (P_queues _ _) (P_trans _ _ _ (P_prefill_mark _ _ _ _ H2) (IH _ _ _ _ _ _ H))).
Qed.

Lemma prefill_queues_lift n : forall c m worder qi top c' m', prefill_queues c m worder qi n top = Ok (c', m') -> P c c'.
Proof.
  induction n as [|k IH]; cbn [prefill_queues]; intros c m worder qi top c' m' H; [inversion H; subst; apply P_refl|].
  apply bind_ok in H. destruct H as (q & _ & H).
  destruct (q_top_priority q) as [tp|]; [|eapply IH; exact H].
  destruct (negb (Z.eqb tp top)); [eapply IH; exact H|].
  destruct (N.eqb _ 0); [eapply IH; exact H|].
  destruct (existsb _ (q_top_task_ids q)).
  - destruct (forallb _ (q_top_task_ids q)); [eapply IH; exact H | discriminate].
  - match type of H with match ?ws with [] => _ | _ => _ end = _ => destruct ws eqn:Ews end; [eapply IH; exact H|].
    destruct (N.eqb _ 0); [eapply IH; exact H|].
    apply bind_ok in H. destruct H as ([c1 m1] & H1 & H).
    exact (P_trans _ _ _ (prefill_workers_lift _ _ _ _ _ _ _ H1) (IH _ _ _ _ _ _ _ H)).
Qed.

Hypothesis P_mn_sets : forall sets c rq mn c' mn', map_mn_sets c rq mn sets = Ok (c', mn') -> P c c'.

Lemma map_mn_lift l : forall c mn c' mn', map_mn c mn l = Ok (c', mn') -> P c c'.
Proof.
  induction l as [|[[rq v] sets] r IH]; cbn [map_mn]; intros c mn c' mn' H; [inversion H; subst; apply P_refl|].
  apply bind_ok in H. destruct H as ([c1 mn1] & H1 & H). exact (P_trans _ _ _ (P_mn_sets _ _ _ _ _ _ H1) (IH _ _ _ _ H)).
Qed.
End SchedLift.
