(** C08 / C14: a cancel and an exceeded failure limit leave NO task of the job without outcome. *)
From HQ Require Import Base.Prelude Cluster.Types Cluster.Core Cluster.Reactor Cluster.Worker Cluster.Server Cluster.Sys Cluster.Monitors Cluster.ProofsJob Cluster.ProofsMore Cluster.ProofsTerminal Cluster.ProofsStep.
From HQ Require Import Cluster.ModelFacts.
From Coq Require Import ZArith Lia.
Require Import ZifyBool ZifyN ZifyNat.
Local Open Scope N_scope.

Arguments N.add : simpl never.
Arguments N.sub : simpl never.

Definition active (l : list (N * jstate)) : N := cnt l JW + cnt l JR.

Lemma non_finished_length j : N.of_nat (length (non_finished_task_ids j)) = active (j_tasks j).
Proof.
  unfold non_finished_task_ids, active. rewrite map_length.
  induction (j_tasks j) as [|[k x] r IH]; [reflexivity|].
  cbn [filter cnt snd]. destruct x; cbn [jst_eqb length]; lia.
Qed.

Lemma mark_tasks_active target site ids : (target = JC \/ target = JA) -> forall j j',
  jsorted (j_tasks j) -> mark_tasks j ids target site = Ok j' ->
  active (j_tasks j') + N.of_nat (length ids) = active (j_tasks j) /\ jsorted (j_tasks j').
Proof.
  intros Ht. induction ids as [|x r IH]; cbn [mark_tasks length]; intros j j' Hs H.
  - inversion H; subst. split; [lia | exact Hs].
  - destruct (negb (N.eqb (fst x) (j_id j))); [discriminate|].
    destruct (jt_find (j_tasks j) (snd x)) as [v|] eqn:Ef; [|discriminate].
    pose proof (fun v => cnt_set_some _ _ _ target v Hs Ef) as HC.
    assert (Hs' : jsorted (j_tasks (job_set_task j (snd x) target))) by (cbn; apply jt_set_sorted; exact Hs).
    destruct v; try discriminate.
    + destruct (IH _ _ Hs' H) as [IA IS]. split; [|exact IS].
      unfold active in *. cbn in IA. pose proof (HC JW) as H1. pose proof (HC JR) as H2.
      destruct Ht; subst target; cbn [jst_eqb] in *; lia.
    + apply bind_ok in H. destruct H as (nr & _ & H).
      match type of H with mark_tasks ?jj _ _ _ = _ => assert (Hs'' : jsorted (j_tasks jj)) by (cbn; apply jt_set_sorted; exact Hs) end.
      destruct (IH _ _ Hs'' H) as [IA IS]. split; [|exact IS].
      unfold active in *. cbn in IA. pose proof (HC JW) as H1. pose proof (HC JR) as H2.
      destruct Ht; subst target; cbn [jst_eqb] in *; lia.
Qed.

Lemma marked_all_none s1 jid j j1 jx target site s' :
  (target = JC \/ target = JA) -> jsorted (j_tasks j) ->
  mark_tasks j (non_finished_task_ids j) target site = Ok j1 ->
  find_job (h_jobs (hq_of s1)) jid = Some jx -> j_tasks jx = j_tasks j1 ->
  check_termination s1 jid = Ok s' ->
  exists j', find_job (h_jobs (hq_of s')) jid = Some j' /\ active (j_tasks j') = 0.
Proof.
  intros Ht Hs Hm Hjx Htx Hc.
  destruct (mark_tasks_active _ _ _ Ht _ _ Hs Hm) as [HA _]. rewrite non_finished_length in HA.
  destruct (check_termination_find _ _ _ Hc _ _ Hjx) as (j' & Hj' & Hor).
  exists j'. split; [exact Hj'|].
  assert (E : j_tasks j' = j_tasks jx) by (destruct Hor as [->| ->]; reflexivity). rewrite E, Htx. lia.
Qed.

(** C14: when the failure limit is exceeded, every task of the job that had no outcome is aborted:
    afterwards the job has no waiting or running task. *)
Theorem exceed_aborts_all s t aborted k s' ids :
  HOK (hq_of s) -> process_task_failed s t aborted k = Ok (s', ids) -> ids <> [] ->
  exists j', find_job (h_jobs (hq_of s')) (fst t) = Some j' /\ active (j_tasks j') = 0.
Proof.
  intros H Hc Hne. unfold process_task_failed in Hc.
  apply bind_ok in Hc. destruct Hc as (s1 & H1 & Hc).
  pose proof (abort_tasks_ok _ _ _ _ H H1) as Hk1.
  apply bind_ok in Hc. destruct Hc as (j & Hj & Hc).
  apply bind_ok in Hc. destruct Hc as (j1 & Hj1 & Hc).
  apply bind_ok in Hc. destruct Hc as (s2 & H2 & Hc).
  assert (Hk2 : HOK (hq_of s2)).
  { eapply check_termination_ok; [|exact H2]. rewrite emit_hq. apply hq_set_job_ok; [exact Hk1|].
    exact (set_failed_ok _ _ _ (hq_get_job_ok _ _ _ _ Hk1 Hj) Hj1). }
  apply bind_ok in Hc. destruct Hc as (j2 & Hj2 & Hc).
  destruct (j_maxfails j2) as [mf|]; [|inversion Hc; subst; contradiction].
  destruct (N.ltb mf (j_nfail j2)); [|inversion Hc; subst; contradiction].
  apply bind_ok in Hc. destruct Hc as (s3 & H3 & Hc). inversion Hc; subst.
  unfold abort_tasks in H3. destruct (non_finished_task_ids j2) eqn:En; [contradiction|]. rewrite <- En in H3.
  rewrite Hj2 in H3. cbn [bind] in H3. apply bind_ok in H3. destruct H3 as (j3 & Hm & H3).
  unfold hq_get_job in Hj2. destruct (find_job _ (fst t)) as [jx|] eqn:Ef; [|discriminate]. inversion Hj2; subst jx.
  eapply (marked_all_none _ (fst t) j2 j3 _ JA 206); [right; reflexivity | exact (jok_sorted _ (Hk2 _ (find_job_in _ _ _ Ef))) | exact Hm | | | exact H3].
  - rewrite emit_hq, hq_set_job_find. cbn [j_id job_upd].
    rewrite (proj1 (mark_tasks_jpres _ _ _ _ _ Hm)), (find_job_id _ _ _ Ef), N.eqb_refl. reflexivity.
  - reflexivity.
Qed.

(** C08: once the cancel of a job is answered, no task of the job is left without outcome. *)
Theorem cancel_leaves_none s jid j s' :
  HOK (hq_of s) -> find_job (hq_jobs s) jid = Some j -> handle_cancel s jid = Ok s' ->
  exists j', find_job (h_jobs (hq_of s')) jid = Some j' /\ active (j_tasks j') = 0.
Proof.
  intros H Hj Hc. unfold handle_cancel in Hc. rewrite Hj in Hc.
  destruct (non_finished_task_ids j) eqn:En.
  - inversion Hc; subst. rewrite emit_hq. exists j. split; [exact Hj|]. rewrite <- non_finished_length, En. reflexivity.
  - rewrite <- En in Hc.
    apply bind_ok in Hc. destruct Hc as (s1 & H1 & Hc).
    apply bind_ok in Hc. destruct Hc as (al & _ & Hc).
    apply bind_ok in Hc. destruct Hc as (s2 & H2 & Hc). inversion Hc; subst. rewrite emit_hq.
    pose proof (on_cancel_tasks_hq _ _ _ H1) as E1.
    unfold set_cancel_state in H2. rewrite En in H2. rewrite <- En in H2.
    unfold hq_get_job in H2. fold (hq_of s1) in H2. rewrite E1 in H2. unfold hq_jobs in Hj. fold (hq_of s) in Hj. rewrite Hj in H2.
    cbn [bind] in H2. apply bind_ok in H2. destruct H2 as (j3 & Hm & H2).
    eapply (marked_all_none _ jid j j3 _ JC 205); [left; reflexivity | exact (jok_sorted _ (H _ (find_job_in _ _ _ Hj))) | exact Hm | | | exact H2].
    + rewrite !emit_hq, hq_set_job_find. cbn [j_id job_upd].
      rewrite (proj1 (mark_tasks_jpres _ _ _ _ _ Hm)), (find_job_id _ _ _ Hj), N.eqb_refl. reflexivity.
    + reflexivity.
Qed.
