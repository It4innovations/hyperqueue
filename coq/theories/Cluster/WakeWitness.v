(** C02 wake-up discipline: LOST WAKE-UPS, as histories of the system model BEFORE their repair
    (W1, W2: findings F30 / F31, both replayed on the real server with the cluster harness:
    corpus/cluster/fixed_F30_wake_prefill_pair_cancel.trace, fixed_F31_wake_retract_response.trace).
    The repairs: the "prefill update" exemption applies only if the prefilled task is still known;
    [on_retract_response] ends with [ask_for_scheduling].

    Each history satisfies every hypothesis of the development - [op_wf], [run_hyp] (= [ops_ok] +
    the solver contracts [sol_ok], [sched_retract_ok] + distinct ids) - and every scheduling answer
    in it satisfies the completeness contract [sched_complete]; it ends AT REST (flag off, empty
    channels, nothing running: [at_restb]) with NOTHING in flight ([busy] = false) - and yet a
    ready task of the top ready priority fits the idle worker: [placeable] = true.  Nothing will
    ever set the flag again unless an unrelated event (new submit, new worker, ...) occurs.

    W1  [prefill pair meets a cancel]  The worker ends task 1.0 and starts the prefilled task 2.0:
        one message [Finished 1.0; RunningPrefilled 2.0].  Before it is delivered the client
        cancels job 2: [on_cancel_tasks] for a Prefilled task sets no flag.  [on_task_update] then
        sees the two-element "prefill update", for which it deliberately does not ask for
        scheduling (the prefilled task takes over the finished task's resources) - but 2.0 is
        unknown by now and ignored.  Worker 1 has all its resources free, task 3.0 waits.
    W2  [retract response]  [on_retract_response] never asks for scheduling.  Since the repair of
        F28 a worker with an unresolved retraction is not free for a multi-node task; the response
        makes it free again ([retracting_from] becomes false) - silently.  The multi-node task 3.0
        (priority 5) and, behind it, the single-node task 2.0 wait for the idle worker 1. *)
From HQ Require Import Base.Prelude Cluster.Types Cluster.Core Cluster.Reactor Cluster.Worker Cluster.Server Cluster.Sys Cluster.BijFinal Cluster.NoPanicU0 Cluster.NoPanicFull Cluster.NoWf Cluster.RestU1.
From HQ Require Import Cluster.Wake.
From Coq Require Import ZArith.
Local Open Scope N_scope.

(** The functions as they were BEFORE the repairs (reactor.rs at commit 1aeda33) and the
    transition system [step_pre] built on them.  Everything else is [Sys.step]. *)
Definition on_task_update_prefix (s : st) (w : wid) (us : list wupdate) : res st :=
  let is_prefill_update :=
      match us with
      | [UFinished _; URunningPrefilled _ _] => true
      | _ => false
      end in
  do (s', need) <- apply_updates s w us false;
  if need && negb is_prefill_update then Ok (ask_scheduling s') else Ok s'.

Definition on_retract_response_prefix (s : st) (w : wid) (ids : list tid) : res st :=
  let '(c', groups) := retract_response_states (core_of s) w ids [] in
  send_redirected (st_core s c') groups.

(** [on_cancel_tasks] with its Prefilled arm as it is at the time of writing (no request for
    scheduling), so that witness W3 survives a repair of that arm too. *)
Fixpoint cancel_release_pre (s : st) (ids : list tid) (to_unreg : list tid) (running : list (wid * list tid))
  : res (st * list tid * list (wid * list tid)) :=
  match ids with
  | [] => Ok (s, to_unreg, running)
  | id :: r =>
      let c := core_of s in
      match find_task (c_tasks c) id with
      | None => cancel_release_pre s r to_unreg running
      | Some t =>
          do csm <- recursive_consumers (c_tasks c) t;
          let to_unreg' := tid_insert_all csm (tid_insert id to_unreg) in
          let add w (l : list (wid * list tid)) := group_add w id l in
          do rq <- get_rq (c_rqs c) (t_rq t);
          match t_state t with
          | Waiting _ => cancel_release_pre (ask_scheduling s) r to_unreg' running
          | Assigned w _ | Running w _ =>
              do wk <- get_worker (c_workers c) w;
              do wk' <- remove_sn_task wk id (rq_res rq);
              cancel_release_pre (ask_scheduling (st_core s (upd_worker c wk'))) r to_unreg' (add w running)
          | RunningMN ws =>
              do c' <- reset_mn_all c ws;
              match ws with
              | [] => Panic 163
              | w0 :: _ => cancel_release_pre (ask_scheduling (st_core s c')) r to_unreg' (add w0 running)
              end
          | Retracting w =>
              do c' <- try_remove_redirection c t;
              cancel_release_pre (ask_scheduling (st_core s c')) r to_unreg' (add w running)
          | Prefilled w =>
              do q <- nth_queue (c_queues c) (N.to_nat (t_rq t));
              do q' <- q_remove_prefilled q id;
              do wk <- get_worker (c_workers c) w;
              do wk' <- remove_prefill_task wk id;
              let c' := upd_worker (with_queues c (set_queue (c_queues c) (N.to_nat (t_rq t)) q')) wk' in
              cancel_release_pre (st_core s c') r to_unreg' (add w running)
          | Finished => Panic 164
          end
      end
  end.
Definition on_cancel_tasks_pre (s : st) (ids : list tid) : res st :=
  do (s1, to_unreg, running) <- cancel_release_pre s ids [] [];
  do c' <- remove_tasks_batched (core_of s1) to_unreg;
  send_all (st_core s1 c') (map (fun g => (fst g, DCancel (snd g))) running).
Definition handle_cancel_pre (s : st) (jid : N) : res st :=
  match find_job (hq_jobs s) jid with
  | None => Ok (emit s (OResp RCancelInvalid))
  | Some j =>
      let ids := non_finished_task_ids j in
      match ids with
      | [] => Ok (emit s (OResp (RCancelOk [] (job_n_tasks j))))
      | _ =>
          do s1 <- on_cancel_tasks_pre s ids;
          do already <- csub (job_n_tasks j) (N.of_nat (length ids)) 225;
          do s2 <- set_cancel_state s1 jid ids;
          Ok (emit s2 (OResp (RCancelOk (map snd ids) already)))
      end
  end.

Definition step_pre (s : sys) (o : op) : res (sys * list out) :=
  match o with
  | OpCancel j => handle_cancel_pre (s, []) j
  | OpDUp w =>
      match find_proc (s_procs s) w with
      | None => Disabled
      | Some p =>
          match p_up p with
          | [] => Disabled
          | m :: rest =>
              let s1 : st := (with_procs s (set_proc (s_procs s) (wp_up p rest)), [OUp w m]) in
              match m with
              | UUpdates us => on_task_update_prefix s1 w us
              | URetractResponse ids => on_retract_response_prefix s1 w ids
              end
          end
      end
  | _ => step s o
  end.

Fixpoint run_pre (s : sys) (ops : list op) : res (sys * list out) :=
  match ops with
  | [] => Ok (s, [])
  | o :: r =>
      do (s1, o1) <- step_pre s o;
      do (s2, o2) <- run_pre s1 r;
      Ok (s2, o1 ++ o2)
  end.

(** A per-step executable hypothesis evaluated along a pre-fix run ([hyp] of NoPanicFull.v is
    [op_ok] + [sol_ok] + [sched_retract_ok] + distinct ids; [op_complete] is the solver's
    completeness contract). *)
Fixpoint along_pre (h : sys -> op -> bool) (s : sys) (ops : list op) : bool :=
  match ops with
  | [] => true
  | o :: r => h s o && match step_pre s o with Ok (s1, _) => along_pre h s1 r | _ => true end
  end.

Definition rq4 : rqdef := mkRq 0 [4; 0; 0].
Definition sub4 : op := OpSubmit None [] None rq4 0%Z CUnl false None.
Definition sol1 : solution := mkSol [(0, 0, [(1, 1)])] [] [1] [].
(** reserve 0, max prefill 1: the round places 1.0 on worker 1 and prefills 2.0 behind it; 3.0 stays ready *)
Definition w1_ops : list op :=
  [OpConnect [4; 0; 0] 0; sub4; sub4; sub4; OpSched sol1; OpDDown 1 []; OpDDown 1 []; OpDUp 1;
   OpEnd 1 (1, 0) EndOk; OpCancel 2; OpDUp 1; OpDDown 1 [0]; OpEnd 1 (2, 0) EndFollowStop].

Definition rq1c : rqdef := mkRq 0 [1; 0; 0].
Definition rqn1 : rqdef := mkRq 1 [0; 0; 0].
Definition sub1 : op := OpSubmit None [] None rq1c 0%Z CUnl false None.
Definition sol0 : solution := mkSol [] [] [1] [].
Definition w2_ops : list op :=
  [OpConnect [1; 0; 0] 0; sub1; sub1; OpSched sol1; OpDDown 1 []; OpDDown 1 []; OpDUp 1;
   OpCancel 1; OpSubmit None [] None rqn1 5%Z CUnl false None; OpSched sol0;
   OpDDown 1 [0]; OpDDown 1 [0]; OpDDown 1 [0]; OpEnd 1 (1, 0) EndFollowStop; OpDUp 1].

(** What "a lost wake-up" is: a history meeting all hypotheses that ends at rest, nothing in
    flight, flag off, with placeable work. *)
Definition lost_wakeup (r m : N) (ops : list op) : Prop :=
  Forall op_wf ops /\ along_pre hyp (init_sys r m) ops = true /\ along_pre op_ok (init_sys r m) ops = true /\ along_pre op_complete (init_sys r m) ops = true /\
  exists s outs, run_pre (init_sys r m) ops = Ok (s, outs) /\ at_rest s /\ busy (s_core s) = false /\
                 placeable (s_core s) = true /\ wake_inv s = false.

Lemma lost_wakeup_by_computation r m ops :
  forallb op_wfb ops = true -> along_pre hyp (init_sys r m) ops = true -> along_pre op_ok (init_sys r m) ops = true -> along_pre op_complete (init_sys r m) ops = true ->
  match run_pre (init_sys r m) ops with
  | Ok (s, _) => at_restb s && negb (busy (s_core s)) && placeable (s_core s) && negb (wake_inv s)
  | _ => false
  end = true ->
  lost_wakeup r m ops.
Proof.
  intros Hwf Hh Hok Hc Hr. split; [|split; [exact Hh | split; [exact Hok | split; [exact Hc|]]]].
  - apply Forall_forall. intros o Ho. apply op_wfb_ok. rewrite forallb_forall in Hwf. exact (Hwf o Ho).
  - destruct (run_pre (init_sys r m) ops) as [[s outs]| |]; [|discriminate | discriminate].
    exists s, outs. split; [reflexivity|].
    apply andb_true_iff in Hr. destruct Hr as [Hr H4]. apply andb_true_iff in Hr. destruct Hr as [Hr H3].
    apply andb_true_iff in Hr. destruct Hr as [H1 H2].
    split; [apply at_restb_ok; exact H1|]. split; [apply negb_true_iff; exact H2|]. split; [exact H3 | apply negb_true_iff; exact H4].
Qed.

Theorem wakeup_prefill_pair_cancel_refuted : lost_wakeup 0 1 w1_ops.
Proof. apply lost_wakeup_by_computation; vm_compute; reflexivity. Qed.

Theorem wakeup_retract_response_refuted : lost_wakeup 0 2 w2_ops.
Proof. apply lost_wakeup_by_computation; vm_compute; reflexivity. Qed.

(** The final states, spelled out. W1: task 3.0 (4 cpus) ready, worker 1 has 4 cpus free. *)
Theorem wakeup_prefill_pair_cancel_state : exists s outs, run_pre (init_sys 0 1) w1_ops = Ok (s, outs) /\
  c_flag (s_core s) = false /\ map (fun t => (t_id t, t_state t)) (c_tasks (s_core s)) = [((3, 0), Waiting 0)] /\
  map (fun w => (w_id w, w_assign w, w_blocked w)) (c_workers (s_core s)) = [(1, Sn [] [] [4; 0; 0], [])] /\
  map (fun p => (p_down p, p_up p, p_running p, p_futures p, p_backlog p)) (s_procs s) = [([], [], [], [], [(0, [])])].
Proof.
  destruct (run_pre (init_sys 0 1) w1_ops) as [[s outs]| |] eqn:E; [|vm_compute in E; discriminate | vm_compute in E; discriminate].
  exists s, outs. split; [reflexivity|]. vm_compute in E. injection E as <- _. vm_compute. repeat split.
Qed.

(** W2: tasks 2.0 (1 cpu, priority 0) and 3.0 (1 node, priority 5) ready, worker 1 free. *)
Theorem wakeup_retract_response_state : exists s outs, run_pre (init_sys 0 2) w2_ops = Ok (s, outs) /\
  c_flag (s_core s) = false /\ map (fun t => (t_id t, t_state t)) (c_tasks (s_core s)) = [((2, 0), Waiting 0); ((3, 0), Waiting 0)] /\
  map (fun w => (w_id w, w_assign w, w_blocked w, mn_free (s_core s) w)) (c_workers (s_core s)) = [(1, Sn [] [] [1; 0; 0], [], true)] /\
  class_fits (s_core s) 0 = true /\ class_fits (s_core s) 1 = true.
Proof.
  destruct (run_pre (init_sys 0 2) w2_ops) as [[s outs]| |] eqn:E; [|vm_compute in E; discriminate | vm_compute in E; discriminate].
  exists s, outs. split; [reflexivity|]. vm_compute in E. injection E as <- _. vm_compute. repeat split.
Qed.

(** ... and one step earlier in W2 the invariant still held only because the worker was not free:
    the response [OpDUp 1] is the step that loses the wake-up. *)
Theorem wakeup_retract_response_step :
  match run_pre (init_sys 0 2) (removelast w2_ops) with
  | Ok (s, _) => wake_inv s && negb (c_flag (s_core s)) && negb (placeable (s_core s)) &&
                 match step_pre s (OpDUp 1) with Ok (s', _) => negb (wake_inv s') && placeable (s_core s') | _ => false end
  | _ => false
  end = true.
Proof. vm_compute. reflexivity. Qed.

(** W3  [cancel of a prefilled task] - a witness OF THE MODEL, not reached on the real server: the
    Prefilled arm of [on_cancel_tasks] is the only arm that does not ask for scheduling, although
    dropping the worker's last prefilled task makes the worker free for a multi-node task.
    History: 1.0 runs on worker 1, 2.0 is prefilled behind it; a one-node multi-node task 3.0 of
    the same priority arrives; job 1 is cancelled; the round answers "nothing" - which meets
    [sol_ok] and [sched_complete], the worker still holds the prefilled 2.0 and is not free -; then
    job 2 is cancelled: worker 1 is free, 3.0 fits, flag off, nothing in flight.
    On the real server (build/wip-progress/wake3.trace) HiGHS answers that round by re-placing
    the prefilled task 2.0 on worker 1 (resources are free), which turns 2.0 into a retraction
    with redirect; its cancellation then takes the Retracting arm, which does ask.  The only
    obstacle is the solver's choice; both answers are optimal for the contract. *)
Definition subn1 : op := OpSubmit None [] None rqn1 0%Z CUnl false None.
Definition w3_ops : list op :=
  [OpConnect [1; 0; 0] 0; sub1; sub1; OpSched sol1; OpDDown 1 []; OpDDown 1 []; OpDUp 1;
   subn1; OpCancel 1; OpSched sol0; OpCancel 2;
   OpDDown 1 [0]; OpDDown 1 [0]; OpDDown 1 [0]; OpEnd 1 (1, 0) EndFollowStop].

Theorem wakeup_cancel_prefilled_refuted : lost_wakeup 0 2 w3_ops.
Proof. apply lost_wakeup_by_computation; vm_compute; reflexivity. Qed.

(** the cancel is the step that loses it; the round before it was complete *)
Theorem wakeup_cancel_prefilled_step :
  match run_pre (init_sys 0 2) (firstn 10 w3_ops) with
  | Ok (s, _) => wake_inv s && negb (c_flag (s_core s)) && negb (placeable (s_core s)) && negb (busy (s_core s)) &&
                 match step_pre s (OpCancel 2) with Ok (s', _) => negb (wake_inv s') && placeable (s_core s') && negb (c_flag (s_core s')) | _ => false end
  | _ => false
  end = true.
Proof. vm_compute. reflexivity. Qed.

Print Assumptions wakeup_prefill_pair_cancel_refuted.
Print Assumptions wakeup_retract_response_refuted.
Print Assumptions wakeup_cancel_prefilled_refuted.
