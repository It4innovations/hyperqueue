(** C03 across a restart, part 2: the reactor.

    [LK s s']: a piece of the server's execution that starts in a state satisfying the proved
    invariants [W] (dependency counters / consumer lists exact [GD], core tasks = active job tasks
    [CB], job counters [HOK], dependencies within the job [DJ]) ends in such a state, keeps the
    dependency lists of the surviving tasks ([dsub]), and the events [ext] it appends are
    dependency-closed w.r.t. the edges of the core it started from ([jc (cdep ..)]): when an event
    kills [t], every dependent of [t] that was in the core is named by the same or an earlier
    event of [ext].  [EVx]: a task that stops being active got a terminal event.

    Proved for [task_finished], [task_failed] (the heart: dependents' abort BEFORE the failure,
    then the rest of the job), the other worker updates, [on_task_update], [lost_fail_running]. *)
From HQ Require Import Base.Prelude Cluster.Types Cluster.Core Cluster.Reactor Cluster.Server Cluster.ProofsJob Cluster.ProofsStep Cluster.BijBase Cluster.BijCore Cluster.BijHq Cluster.BijSt Cluster.BijReact Cluster.ProofsOnce Cluster.StartFinBase Cluster.InvDBase Cluster.InvDSpec Cluster.InvDRem Cluster.InvDReact Cluster.InvDHq Cluster.InvDStep Cluster.DepOrderBase.
From HQ Require Import Cluster.ReactSplit.
From HQ Require Import Cluster.RejHyp Cluster.ReactSplit.
Local Open Scope N_scope.

Arguments N.add : simpl never.
Arguments N.sub : simpl never.

Record W (s : st) : Prop := mkW { w_gd : GD (core_of s); w_cb : CB s; w_hok : HOK (hq_of s); w_dj : DJ s }.

Definition EVx (s s' : st) (ext : list out) : Prop :=
  forall x, active s x -> active s' x \/ In x (terminal_ids ext).

Definition NoT : tid -> Prop := fun _ => False.

Definition LK (s s' : st) : Prop :=
  W s -> W s' /\ dsub (fm (core_of s)) (fm (core_of s')) /\
  exists ext, snd s' = snd s ++ ext /\ jc (cdep (core_of s)) NoT ext /\ EVx s s' ext.

Lemma W_next s s' : W s -> RL (core_of s) (core_of s') -> CB s' -> HOK (hq_of s') -> KL s s' ->
  W s' /\ dsub (fm (core_of s)) (fm (core_of s')).
Proof.
  intros HW [G' S] HC' Hok' HK. split; [|exact S].
  constructor; [exact G' | exact HC' | exact Hok' | eapply DJ_step; [exact (w_dj _ HW) | exact S | exact HK]].
Qed.

Lemma core_task_active s x tx : CB s -> find_task (c_tasks (core_of s)) x = Some tx -> active s x.
Proof. intros HC Ex. apply (cb_b _ HC). apply find_task_present. exists tx. exact Ex. Qed.

Lemma active_core_task s x : CB s -> active s x -> exists tx, find_task (c_tasks (core_of s)) x = Some tx.
Proof. intros HC Ha. apply (cb_b _ HC) in Ha. apply find_task_present in Ha. exact Ha. Qed.

Lemma cdep_step s s' ext :
  CB s -> CB s' -> dsub (fm (core_of s)) (fm (core_of s')) -> EVx s s' ext ->
  forall x t, cdep (core_of s) x t -> cdep (core_of s') x t \/ In x (terminal_ids ext).
Proof.
  intros HC HC' S EV x t (tx & Ex & Ht).
  destruct (EV x (core_task_active _ _ _ HC Ex)) as [Ha|Hin]; [|right; exact Hin].
  left. destruct (active_core_task _ _ HC' Ha) as (tx' & Ex').
  destruct (S _ _ Ex') as (t0 & E0 & Ed). unfold fm in E0. rewrite Ex in E0. inversion E0; subst t0.
  exists tx'. split; [exact Ex' | rewrite Ed; exact Ht].
Qed.

Lemma LK_refl s : LK s s.
Proof.
  intros HW. split; [exact HW|]. split; [apply dsub_refl|]. exists []. rewrite app_nil_r.
  split; [reflexivity|]. split; [exact I|]. intros x Hx; left; exact Hx.
Qed.

Lemma LK_trans s1 s2 s3 : LK s1 s2 -> LK s2 s3 -> LK s1 s3.
Proof.
  intros A B HW1. destruct (A HW1) as (HW2 & S12 & e1 & E1 & J1 & V1).
  destruct (B HW2) as (HW3 & S23 & e2 & E2 & J2 & V2).
  split; [exact HW3|]. split; [eapply dsub_trans; eassumption|].
  exists (e1 ++ e2). split; [rewrite E2, E1, app_assoc; reflexivity|]. split.
  - apply jc_app. split; [exact J1|]. eapply jc_weaken; [| |exact J2].
    + intros x t _ Hd. destruct (cdep_step _ _ _ (w_cb _ HW1) (w_cb _ HW2) S12 V1 _ _ Hd) as [Hc|Hin]; [left; exact Hc | right; left; exact Hin].
    + intros x [].
  - intros x Hx. rewrite terminal_ids_app. destruct (V1 x Hx) as [H2|Hin]; [|right; apply in_app_iff; left; exact Hin].
    destruct (V2 x H2) as [H3|Hin]; [left; exact H3 | right; apply in_app_iff; right; exact Hin].
Qed.

Lemma LK_quiet s s' q :
  (W s -> W s' /\ dsub (fm (core_of s)) (fm (core_of s'))) ->
  snd s' = snd s ++ q -> terminal_ids q = [] -> (W s -> forall x, active s x -> active s' x) -> LK s s'.
Proof.
  intros HWn E Hq Ha HW. destruct (HWn HW) as [HW' S]. split; [exact HW'|]. split; [exact S|].
  exists q. split; [exact E|]. split; [apply jc_quiet; exact Hq|]. intros x Hx; left; apply (Ha HW); exact Hx.
Qed.

Lemma LK_task_finished s w id s' b : task_finished s w id = Ok (s', b) -> LK s s'.
Proof.
  intros H HW.
  destruct (W_next s s' HW (task_finished_RL _ _ _ _ _ (w_gd _ HW) H) (task_finished_CB _ _ _ _ _ (w_cb _ HW) H)
              (task_finished_ok _ _ _ _ _ (w_hok _ HW) H) (task_finished_KL _ _ _ _ _ H)) as [HW' Hds].
  split; [exact HW'|]. split; [exact Hds|].
  apply task_finished_split in H.
  destruct (find_task (c_tasks (core_of s)) id) as [t|] eqn:Ef.
  2:{ subst. exact (proj2 (proj2 (LK_refl _ HW))). }
  destruct H as (c1 & s1 & c3 & retracted & s2 & c4 & _ & Hf & Hw & Hr & Hrm & ->).
  destruct (process_task_finished_ext _ _ _ Hf) as (ext & E & [Et B]). cbn [snd st_core] in E.
  destruct (process_task_finished_active _ _ _ Hf) as [_ A1].
  pose proof (process_retracted_snd _ _ _ Hr) as S2. cbn [snd st_core] in S2.
  pose proof (process_retracted_hq _ _ _ Hr) as Q2.
  exists ext. split; [cbn [snd st_core]; rewrite S2; exact E|]. split.
  - apply B. intros t' x [].
  - intros x Hx. destruct (tid_dec x id) as [->|Hne]; [right; rewrite Et; left; reflexivity|].
    left. apply (active_same s1 (st_core s2 c4)); [apply jt_same; exact Q2|].
    apply A1. split; [|exact Hne]. apply (active_same s (st_core s _)); [intros; reflexivity | exact Hx].
Qed.

Lemma LK_task_failed s w id k s' : task_failed s w id k = Ok s' -> LK s s'.
Proof.
  intros H HW.
  destruct (W_next s s' HW (task_failed_RL _ _ _ _ _ (w_gd _ HW) H) (task_failed_CB _ _ _ _ _ (w_hok _ HW) (w_cb _ HW) H)
              (task_failed_ok _ _ _ _ _ (w_hok _ HW) H) (task_failed_KL _ _ _ _ _ H)) as [HW' Hds].
  split; [exact HW'|]. split; [exact Hds|].
  apply task_failed_split in H.
  destruct (find_task (c_tasks (core_of s)) id) as [t|] eqn:Ef.
  2:{ subst. exact (proj2 (proj2 (LK_refl _ HW))). }
  destruct HW as [[Hs D] HC Hok HJ].
  destruct H as (c1 & csm & c2 & c3 & stt & s1 & cancel_ids & Et & Hcs & H2 & H3 & H4 & H). rewrite Et in Hcs.
  assert (Wf : WFc (c_tasks (core_of s))) by (eapply DX_WFc; exact D).
  assert (Hdom : forall y, In y (t_consumers t) -> find_task (c_tasks (core_of s)) y <> None).
  { intros y Hy. destruct (dx_cons _ _ D _ _ _ Ef Hy) as (ct & Ec & _). unfold fm in Ec. congruence. }
  destruct (recursive_consumers_closed _ t csm Wf (dx_nc _ _ D _ _ Ef) Hdom Hcs) as [I1 I2].
  pose proof (recursive_consumers_dom _ t csm Wf Hdom Hcs) as I3.
  destruct (process_task_failed_active (st_core s c3) id csm k s1 cancel_ids Hok H4) as (_ & A4 & J4 & N4).
  destruct (process_task_failed_ext _ _ _ _ _ _ H4) as (e1 & e2 & e3 & E4 & [T1 B1] & [T2 B2] & [T3 B3]). cbn [snd st_core] in E4.
  assert (Hsnd : snd s' = snd s1 /\ hq_of s' = hq_of s1).
  { destruct cancel_ids; [subst; split; reflexivity|].
    split; [eapply on_cancel_tasks_snd; exact H | eapply on_cancel_tasks_hq; exact H]. }
  exists (e1 ++ e2 ++ e3). split; [rewrite (proj1 Hsnd); exact E4|]. split.
  - apply jc_app. split.
    + (* the dependents' abort: the transitive consumers are closed *)
      apply B1. intros t' x Ht' (tx & Ex & Hd). left.
      destruct (find_task (c_tasks (core_of s)) t') as [dt|] eqn:Edt; [|exfalso; exact (I3 _ Ht' Edt)].
      eapply I2; [exact Ht' | exact Edt|]. exact (dx_deps _ _ D x tx t' dt Ex Hd Edt).
    + apply jc_app. split.
      * (* the failure itself: its direct dependents were just aborted *)
        apply B2. intros t' x [<-|[]] (tx & Ex & Hd). right. left. rewrite T1. apply I1.
        exact (dx_deps _ _ D x tx id t Ex Hd Ef).
      * (* the failure limit: every other active task of the job *)
        apply B3. intros t' x Ht' (tx & Ex & Hd). rewrite T1, T2.
        destruct (in_dec tid_dec x csm) as [Ic|Nc]; [right; right; left; exact Ic|].
        destruct (tid_dec x id) as [->|Ni]; [right; left; left; reflexivity|].
        left. apply N4; [intros E0; rewrite E0 in Ht'; destruct Ht' | | | exact Nc | exact Ni].
        -- destruct (HJ x tx t' Ex Hd) as [Hj _]. rewrite <- Hj. apply J4. exact Ht'.
        -- apply (active_same s (st_core s c3)); [intros; reflexivity|]. eapply core_task_active; [exact HC | exact Ex].
  - intros x Hx. rewrite !terminal_ids_app, T1, T2, T3.
    destruct (in_dec tid_dec x csm) as [Ic|Nc]; [right; apply in_app_iff; left; exact Ic|].
    destruct (tid_dec x id) as [->|Ni]; [right; apply in_app_iff; right; left; reflexivity|].
    destruct (in_dec tid_dec x cancel_ids) as [Ik|Nk]; [right; apply in_app_iff; right; right; exact Ik|].
    left. apply (active_same s1 s'); [apply jt_same; exact (proj2 Hsnd)|].
    apply A4. split; [|split; [exact Nc | split; [exact Ni | exact Nk]]].
    apply (active_same s (st_core s c3)); [intros; reflexivity | exact Hx].
Qed.

Lemma task_running_ext s w id rv s' b :
  task_running s w id rv = Ok (s', b) -> exists q, snd s' = snd s ++ q /\ terminal_ids q = [].
Proof.
  intros Hc. unfold task_running in Hc.
  destruct (find_task _ id) as [t|]; [|inversion Hc; subst; apply quiet_nil].
  apply bind_ok in Hc. destruct Hc as (rq & _ & Hc). apply bind_ok in Hc. destruct Hc as ([s1 ws] & Hm & Hc).
  apply bind_ok in Hc. destruct Hc as (s2 & H2 & Hc). inversion Hc; subst.
  destruct (process_task_started_ext _ _ _ _ _ _ H2) as (q & Eq & Hq). exists q. split; [|exact Hq]. rewrite Eq. f_equal.
  destruct (t_state t); try discriminate.
  - destruct (negb (N.eqb w0 w)); [discriminate|]. destruct (negb (N.eqb rv0 rv)); [discriminate|]. inversion Hm; subst. reflexivity.
  - destruct (negb (N.eqb w0 w)); [discriminate|]. inv_binds Hm. inversion Hm; subst. reflexivity.
  - destruct (negb (N.eqb w0 w)); [discriminate|]. inv_binds Hm. inversion Hm; subst. reflexivity.
  - destruct ws0; [discriminate|]. destruct (N.eqb w0 w); [|discriminate]. inversion Hm; subst. reflexivity.
Qed.

(** One update as a one-element [apply_updates]: [W] comes from the [apply_updates_*] lemmas. *)
Lemma single_update s w u need s1 n1 :
  match u with
  | UFinished t => task_finished s w t
  | UFailed t k => do s' <- task_failed s (Some w) t k; Ok (s', true)
  | URunning t rv | URunningPrefilled t rv => task_running s w t rv
  | UReject t rv => task_reject s w t rv
  | UEnable rq rv => do s' <- request_enabled s w rq rv; Ok (s', true)
  end = Ok (s1, n1) ->
  apply_updates s w [u] need = Ok (s1, need || n1).
Proof. intros Hu. cbn [apply_updates]. rewrite Hu. reflexivity. Qed.

Lemma W_apply_updates us s w need s' need' :
  apply_updates s w us need = Ok (s', need') -> W s -> W s' /\ dsub (fm (core_of s)) (fm (core_of s')).
Proof.
  intros H HW. apply (W_next s s' HW).
  - eapply apply_updates_RL; [exact (w_gd _ HW) | exact H].
  - eapply apply_updates_CB; [exact (w_hok _ HW) | exact (w_cb _ HW) | exact H].
  - eapply apply_updates_ok; [exact (w_hok _ HW) | exact H].
  - eapply apply_updates_KL; exact H.
Qed.

Lemma LK_task_running s w id rv s' b : task_running s w id rv = Ok (s', b) -> LK s s'.
Proof.
  intros Hu. destruct (task_running_ext _ _ _ _ _ _ Hu) as (q & Eq & Hq).
  apply (LK_quiet s s' q); [eapply W_apply_updates; exact (single_update s w (URunning id rv) false _ _ Hu) | exact Eq | exact Hq|].
  intros HW x Hx. apply (proj2 (task_running_spec _ _ _ _ _ _ (cb_s _ (w_cb _ HW)) Hu)). exact Hx.
Qed.

Lemma LK_apply_one s w u s' n : apply_one s w u = Ok (s', n) -> LK s s'.
Proof.
  intros Hu. pose proof (single_update _ _ _ false _ _ Hu) as Hsingle.
  destruct u; cbn [apply_one] in Hu.
  - eapply LK_task_finished; exact Hu.
  - apply bind_ok in Hu. destruct Hu as (sx & Hf & Hu). inversion Hu; subst. eapply LK_task_failed; exact Hf.
  - eapply LK_task_running; exact Hu.
  - eapply LK_task_running; exact Hu.
  - eapply (LK_quiet s s' []); [eapply W_apply_updates; exact Hsingle | rewrite app_nil_r; eapply task_reject_snd; exact Hu | reflexivity|].
    intros _ x Hx. apply (active_same s s'); [apply jt_same; eapply task_reject_same; exact Hu | exact Hx].
  - apply bind_ok in Hu. destruct Hu as (sx & Hf & Hu). inversion Hu; subst.
    eapply (LK_quiet s s' []); [eapply W_apply_updates; exact Hsingle | | reflexivity|].
    + rewrite app_nil_r. unfold request_enabled in Hf. inv_binds Hf. inversion Hf; subst. reflexivity.
    + intros _ x Hx. apply (active_same s s'); [apply jt_same; eapply request_enabled_same; exact Hf | exact Hx].
Qed.

Lemma LK_apply_updates us : forall s w need s' need', apply_updates s w us need = Ok (s', need') -> LK s s'.
Proof. exact (apply_updates_rel LK LK_refl LK_trans LK_apply_one us). Qed.

(** * Pieces that leave the task ids, edges and the job layer alone *)
Lemma W_same_keys s s' :
  scr (core_of s) (core_of s') -> K s' = K s -> hq_of s' = hq_of s -> W s -> W s' /\ dsub (fm (core_of s)) (fm (core_of s')).
Proof.
  intros S EK Eh HW. apply (W_next s s' HW).
  - apply RL_scr; [exact (w_gd _ HW) | exact S].
  - eapply CB_same; [exact EK | exact Eh | exact (w_cb _ HW)].
  - rewrite Eh. exact (w_hok _ HW).
  - apply KL_same. exact Eh.
Qed.

Lemma LK_same_keys s s' :
  scr (core_of s) (core_of s') -> K s' = K s -> hq_of s' = hq_of s -> snd s' = snd s -> LK s s'.
Proof.
  intros S EK Eh Es. apply (LK_quiet s s' []); [| rewrite app_nil_r; exact Es | reflexivity |].
  - apply W_same_keys; assumption.
  - intros _ x Hx. apply (active_same s s'); [apply jt_same; exact Eh | exact Hx].
Qed.

Lemma LK_same_tasks s s' :
  c_tasks (core_of s') = c_tasks (core_of s) -> hq_of s' = hq_of s -> snd s' = snd s -> LK s s'.
Proof.
  intros Et. apply LK_same_keys; [apply scr_tasks; exact Et | unfold K, keys; rewrite Et; reflexivity].
Qed.

Lemma LK_emit s o : tids_of o = [] -> LK s (emit s o).
Proof.
  intros Ho. apply (LK_quiet s _ [o]); [|reflexivity | rewrite tids_cons, Ho; reflexivity | intros _ x Hx; exact Hx].
  apply W_same_keys; [apply scr_tasks|..]; reflexivity.
Qed.

Lemma LK_upd_same s id t t' :
  find_task (c_tasks (core_of s)) id = Some t -> same_edges t t' -> t_state t' = t_state t ->
  LK s (st_core s (upd_task (core_of s) t')).
Proof.
  intros Ef He Hst. apply (LK_quiet s _ []); [| rewrite app_nil_r; reflexivity | reflexivity | intros _ x Hx; exact Hx].
  intros HW. apply W_same_keys; [| | reflexivity | exact HW].
  - cbn. eapply (scr_upd _ (core_of s) _ id t); [reflexivity | exact Ef | reflexivity | exact He | left; exact Hst].
  - unfold K. cbn. destruct He as (Hi & _ & Hc).
    apply (upd_task_frame (core_of s) id t); [exact (cb_s _ (w_cb _ HW)) | exact Ef | exact Hi | exact Hc].
Qed.

Lemma LK_on_task_update s w us s' : on_task_update s w us = Ok s' -> LK s s'.
Proof. apply (on_task_update_rel LK LK_refl LK_trans LK_apply_one). intros x. apply LK_same_tasks; reflexivity. Qed.

Lemma LK_lost_fail_running l : forall s reason s', lost_fail_running s reason l = Ok s' -> LK s s'.
Proof.
  apply (lost_fail_running_rel LK LK_refl LK_trans).
  - intros s id t Ef. apply (LK_upd_same s id t _ Ef); [repeat split | reflexivity].
  - intros s id k s' _ H. eapply LK_task_failed; exact H.
Qed.
