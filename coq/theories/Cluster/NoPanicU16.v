(** Protocol invariant, part 16: the messages a scheduling round has decided to send (the
    per-worker updates [wupd] and the multi-node tasks) as pending messages, and their items. *)
From HQ Require Import Base.Prelude Cluster.Types Cluster.Core Cluster.Reactor Cluster.Worker Cluster.Server Cluster.Sys Cluster.ProofsJob Cluster.NoPanicU0 Cluster.NoPanicU1 Cluster.NoPanicU2 Cluster.NoPanicU4 Cluster.NoPanicU6 Cluster.NoPanicU7 Cluster.NoPanicU8 Cluster.NoPanicU9.
From HQ Require Import Cluster.ModelFacts.
From Coq Require Import ZArith Lia Sorting.Sorted.
Local Open Scope N_scope.

Fixpoint wfind (m : list wupd) (w : wid) : option wupd :=
  match m with [] => None | h :: t => if N.eqb w (wu_w h) then Some h else wfind t w end.

Lemma wu_get_wfind m w : wu_get m w = match wfind m w with Some u => u | None => mkWU w [] [] [] end.
Proof. induction m as [|h t IH]; cbn [wu_get wfind]; [reflexivity|]. destruct (N.eqb w (wu_w h)); [reflexivity | exact IH]. Qed.
Lemma wfind_key m w u : wfind m w = Some u -> wu_w u = w.
Proof.
  induction m as [|h t IH]; cbn [wfind]; [discriminate|]. destruct (N.eqb w (wu_w h)) eqn:E; [|exact IH].
  intros H; inversion H; subst. apply N.eqb_eq in E. symmetry. exact E.
Qed.
Lemma wu_get_key m w : wu_w (wu_get m w) = w.
Proof. rewrite wu_get_wfind. destruct (wfind m w) as [u|] eqn:E; [eapply wfind_key; exact E | reflexivity]. Qed.
Lemma wfind_set m x w : wfind (wu_set m x) w = if N.eqb w (wu_w x) then Some x else wfind m w.
Proof.
  induction m as [|h t IH]; cbn [wu_set wfind]; [reflexivity|].
  destruct (N.eqb (wu_w x) (wu_w h)) eqn:E1.
  - apply N.eqb_eq in E1. cbn [wfind]. rewrite <- E1. destruct (N.eqb w (wu_w x)); reflexivity.
  - cbn [wfind]. destruct (N.eqb w (wu_w h)) eqn:E2; [|exact IH].
    apply N.eqb_eq in E2. subst w. rewrite N.eqb_sym, E1. reflexivity.
Qed.
Lemma wu_set_keys m x : map wu_w (wu_set m x) = if in_dec N.eq_dec (wu_w x) (map wu_w m) then map wu_w m else map wu_w m ++ [wu_w x].
Proof.
  induction m as [|h t IH]; cbn [wu_set map]; [reflexivity|].
  destruct (N.eqb (wu_w x) (wu_w h)) eqn:E.
  - apply N.eqb_eq in E. cbn [map]. rewrite E. destruct (in_dec N.eq_dec (wu_w h) (wu_w h :: map wu_w t)) as [_|Hn]; [reflexivity | exfalso; apply Hn; left; reflexivity].
  - apply N.eqb_neq in E. cbn [map]. rewrite IH.
    destruct (in_dec N.eq_dec (wu_w x) (map wu_w t)) as [Hi|Hn]; destruct (in_dec N.eq_dec (wu_w x) (wu_w h :: map wu_w t)) as [Hi'|Hn']; try reflexivity.
    + exfalso. apply Hn'. right. exact Hi.
    + exfalso. destruct Hi' as [Hi'|Hi']; [congruence | contradiction].
Qed.
Lemma wu_set_nodup m x : NoDup (map wu_w m) -> NoDup (map wu_w (wu_set m x)).
Proof.
  intros Hn. rewrite wu_set_keys. destruct (in_dec N.eq_dec (wu_w x) (map wu_w m)) as [_|Hni]; [exact Hn | apply NoDup_snoc; assumption].
Qed.
Lemma wfind_none m w : ~ In w (map wu_w m) -> wfind m w = None.
Proof.
  induction m as [|h t IH]; cbn [wfind map In]; [reflexivity|]. intros Hn.
  destruct (N.eqb w (wu_w h)) eqn:E; [apply N.eqb_eq in E; exfalso; apply Hn; auto | apply IH; intros X; apply Hn; auto].
Qed.
Lemma wfind_in m w u : wfind m w = Some u -> In u m.
Proof.
  induction m as [|h t IH]; cbn [wfind]; [discriminate|]. destruct (N.eqb w (wu_w h)); [intros H; inversion H; left; reflexivity | intros H; right; apply IH; exact H].
Qed.
Lemma in_wfind m u : NoDup (map wu_w m) -> In u m -> wfind m (wu_w u) = Some u.
Proof.
  induction m as [|h t IH]; cbn [wfind map]; intros Hn Hin; [destruct Hin|]. inversion Hn as [|? ? Hh Ht]; subst.
  destruct Hin as [->|Hin]; [rewrite N.eqb_refl; reflexivity|].
  destruct (N.eqb (wu_w u) (wu_w h)) eqn:E; [|apply IH; assumption]. apply N.eqb_eq in E. exfalso. apply Hh. rewrite <- E. apply in_map. exact Hin.
Qed.

Definition ctp (c : core) (id : tid) : ctask :=
  match find_task (c_tasks c) id with Some t => ctask_of t None [] | None => mkCT id 0 None 0 false [] end.
Definition umsgs (c : core) (u : wupd) : list (wid * dmsg) :=
  (match wu_retracts u with [] => [] | ids => [(wu_w u, DRetract ids)] end) ++
  (match map (ctp c) (wu_prefills u) ++ map (ctk c) (wu_assigned u) with [] => [] | cts => [(wu_w u, DCompute cts)] end).
Definition mnmsg (c : core) (id : tid) : wid * dmsg :=
  match find_task (c_tasks c) id with
  | Some t => match t_state t with RunningMN (w0 :: ws) => (w0, DCompute [ctask_of t (Some 0) (w0 :: ws)]) | _ => (0, DStop) end
  | None => (0, DStop)
  end.
Definition pdM (c : core) (m : list wupd) (mn : list tid) : list (wid * dmsg) := flat_map (umsgs c) m ++ map (mnmsg c) mn.

Definition pit (y : tid) (l : list tid) : list ditem := flat_map (fun id => sel id y (IDC None false)) l.
Definition uit (y : tid) (u : wupd) : list ditem := dret y (wu_retracts u) ++ pit y (wu_prefills u) ++ cit y (wu_assigned u).

Lemma ctp_id c id : ct_id (ctp c id) = id.
Proof. unfold ctp. destruct (find_task (c_tasks c) id) as [t|] eqn:E; [|reflexivity]. cbn. exact (proj2 (find_task_some _ _ _ E)). Qed.
Lemma ctp_rv c id : ct_rv (ctp c id) = None.
Proof. unfold ctp. destruct (find_task (c_tasks c) id); reflexivity. Qed.
Lemma ctp_nodes c id : ct_nodes (ctp c id) = [].
Proof. unfold ctp. destruct (find_task (c_tasks c) id); reflexivity. Qed.

Lemma compute_items c y pre asg :
  flat_map (fun ct => sel (ct_id ct) y (IDC (ct_rv ct) (negb (is_nil (ct_nodes ct))))) (map (ctp c) pre ++ map (ctk c) asg) = pit y pre ++ cit y asg.
Proof.
  rewrite flat_map_app. f_equal.
  - unfold pit. induction pre as [|h t IH]; [reflexivity|]. cbn [map flat_map]. rewrite ctp_id, ctp_rv, ctp_nodes, IH. reflexivity.
  - change (ditems_msg y (DCompute (map (ctk c) asg)) = cit y asg). apply ctk_items.
Qed.

Lemma umsgs_items c u w y : ditems y (msgs_for w (umsgs c u)) = if N.eqb (wu_w u) w then uit y u else [].
Proof.
  unfold umsgs, uit. rewrite msgs_for_app, ditems_app.
  assert (A : ditems y (msgs_for w (match wu_retracts u with [] => [] | ids => [(wu_w u, DRetract ids)] end)) = if N.eqb (wu_w u) w then dret y (wu_retracts u) else []).
  { destruct (wu_retracts u) as [|i0 ir] eqn:E; [destruct (N.eqb (wu_w u) w); reflexivity|].
    rewrite msgs_for_cons, msgs_for_nil. destruct (N.eqb (wu_w u) w); [|reflexivity]. cbn [ditems flat_map ditems_msg]. rewrite app_nil_r. reflexivity. }
  assert (B : ditems y (msgs_for w (match map (ctp c) (wu_prefills u) ++ map (ctk c) (wu_assigned u) with [] => [] | cts => [(wu_w u, DCompute cts)] end))
              = if N.eqb (wu_w u) w then pit y (wu_prefills u) ++ cit y (wu_assigned u) else []).
  { rewrite <- (compute_items c y). destruct (map (ctp c) (wu_prefills u) ++ map (ctk c) (wu_assigned u)) as [|c0 cr] eqn:E; [destruct (N.eqb (wu_w u) w); reflexivity|].
    rewrite msgs_for_cons, msgs_for_nil. destruct (N.eqb (wu_w u) w); [|reflexivity]. cbn [ditems flat_map ditems_msg]. rewrite app_nil_r. reflexivity. }
  rewrite A, B. destruct (N.eqb (wu_w u) w); reflexivity.
Qed.

Lemma flat_umsgs_items c m w y : NoDup (map wu_w m) ->
  ditems y (msgs_for w (flat_map (umsgs c) m)) = match wfind m w with Some u => uit y u | None => [] end.
Proof.
  induction m as [|h t IH]; cbn [flat_map wfind map]; intros Hn; [reflexivity|]. inversion Hn as [|? ? Hh Ht]; subst.
  rewrite msgs_for_app, ditems_app, umsgs_items, (IH Ht). rewrite (N.eqb_sym (wu_w h) w).
  destruct (N.eqb w (wu_w h)) eqn:E; [|reflexivity]. apply N.eqb_eq in E. subst w. rewrite (wfind_none _ _ Hh), app_nil_r. reflexivity.
Qed.

Definition mit (c : core) (mn : list tid) (w : wid) (y : tid) : list ditem := ditems y (msgs_for w (map (mnmsg c) mn)).

Lemma pdM_items c m mn w y : NoDup (map wu_w m) ->
  ditems y (msgs_for w (pdM c m mn)) = match wfind m w with Some u => uit y u | None => [] end ++ mit c mn w y.
Proof. intros Hn. unfold pdM, mit. rewrite msgs_for_app, ditems_app, (flat_umsgs_items c m w y Hn). reflexivity. Qed.

Lemma mit_snoc c mn id w y : mit c (mn ++ [id]) w y = mit c mn w y ++ ditems y (msgs_for w [mnmsg c id]).
Proof. unfold mit. rewrite map_app, msgs_for_app, ditems_app. reflexivity. Qed.

(** frames: the entries only read id / instance / request / time-limit flag (and, for the
    multi-node tasks, the state) *)
Definition tdata (t : task) := (t_id t, t_inst t, t_rq t, t_tlim t).
Lemma ctp_frame c c' : (forall y, option_map tdata (find_task (c_tasks c') y) = option_map tdata (find_task (c_tasks c) y)) -> forall id, ctp c' id = ctp c id.
Proof.
  intros H id. unfold ctp. specialize (H id). destruct (find_task (c_tasks c') id) as [t'|], (find_task (c_tasks c) id) as [t|]; cbn in H; try discriminate; [|reflexivity].
  unfold tdata in H. inversion H. unfold ctask_of. congruence.
Qed.
Lemma ctk_frame' c c' : (forall y, option_map tdata (find_task (c_tasks c') y) = option_map tdata (find_task (c_tasks c) y)) -> forall ir, ctk c' ir = ctk c ir.
Proof. intros H. apply ctk_frame. exact H. Qed.
Lemma umsgs_frame c c' u : (forall y, option_map tdata (find_task (c_tasks c') y) = option_map tdata (find_task (c_tasks c) y)) -> umsgs c' u = umsgs c u.
Proof.
  intros H. unfold umsgs. rewrite (map_ext _ _ (ctp_frame c c' H)), (map_ext _ _ (ctk_frame' c c' H)). reflexivity.
Qed.

Definition cmsg_ok (rqs : list rqdef) (n : N) (m : dmsg) : Prop :=
  match m with DCompute cts => forallb (ct_ok rqs n) cts = true | DNewRq _ _ => False | _ => True end.

Lemma down_ok_pending rqs ms : forall d n, down_ok rqs n d = true ->
  (forall m, In m ms -> cmsg_ok rqs (n + N.of_nat (length (newrq_defs d))) m) ->
  down_ok rqs n (d ++ ms) = true /\ newrq_defs ms = [].
Proof.
  induction d as [|m0 r IH]; intros n Hd Hm; cbn [app].
  - cbn [newrq_defs flat_map length] in Hm. rewrite N.add_0_r in Hm. clear Hd. induction ms as [|m t IHm]; [split; reflexivity|].
    pose proof (Hm m (or_introl eq_refl)) as H0. destruct (IHm (fun m1 H1 => Hm m1 (or_intror H1))) as [A B].
    destruct m; cbn [cmsg_ok] in H0; cbn [down_ok]; unfold newrq_defs in *; cbn [flat_map app]; try (split; assumption); [|destruct H0].
    rewrite H0, A. split; [reflexivity | exact B].
  - destruct m0; cbn [down_ok] in *; try (apply IH; [exact Hd | intros m1 H1; apply Hm; exact H1]).
    + apply andb_true_iff in Hd. destruct Hd as [A B]. rewrite A. apply IH; [exact B | intros m1 H1; apply Hm; exact H1].
    + apply andb_true_iff in Hd. destruct Hd as [A B]. rewrite A. cbn [andb]. apply IH; [exact B|].
      intros m1 H1. specialize (Hm m1 H1). unfold newrq_defs in Hm. cbn [flat_map app length] in Hm. fold (newrq_defs r) in Hm.
      replace (n + 1 + N.of_nat (length (newrq_defs r))) with (n + N.of_nat (Datatypes.S (length (newrq_defs r)))) by lia. exact Hm.
Qed.

Lemma tab_pending2 X s pum pd w p ms :
  SP X s pum pd -> find_proc (s_procs (fst s)) w = Some p -> newrq_defs (msgs_for w pd) = [] ->
  (forall m, In m ms -> cmsg_ok (c_rqs (core_of s)) (N.of_nat (length (c_rqs (core_of s)))) m) ->
  down_ok (c_rqs (core_of s)) (N.of_nat (length (p_rqs p))) (p_down p ++ ms) = true /\ newrq_defs ms = [].
Proof.
  intros HS Hp Hn Hm. pose proof (down_ok_prefix _ _ _ _ (sp_down _ _ _ _ HS _ _ Hp)) as Hd.
  pose proof (sp_tab _ _ _ _ HS _ _ Hp) as Ht. rewrite newrq_app, Hn, app_nil_r in Ht.
  apply down_ok_pending; [exact Hd|]. intros m Hin.
  replace (N.of_nat (length (p_rqs p)) + N.of_nat (length (newrq_defs (p_down p)))) with (N.of_nat (length (c_rqs (core_of s)))); [apply Hm; exact Hin|].
  rewrite <- Ht, app_length. lia.
Qed.

(** the entries of the round are sendable *)
Definition POK (c : core) (m : list wupd) (mn : list tid) : Prop :=
  (forall u y v, In u m -> In (y, v) (wu_assigned u) ->
     v = 0 /\ exists t, find_task (c_tasks c) y = Some t /\ (N.to_nat (t_rq t) < length (c_rqs c))%nat) /\
  (forall id t w0 ws, In id mn -> find_task (c_tasks c) id = Some t -> t_state t = RunningMN (w0 :: ws) ->
     exists r, nth_error (c_rqs c) (N.to_nat (t_rq t)) = Some r /\ zero_res r = true).

Lemma umsgs_ok c u : (forall y v, In (y, v) (wu_assigned u) -> v = 0 /\ exists t, find_task (c_tasks c) y = Some t /\ (N.to_nat (t_rq t) < length (c_rqs c))%nat) ->
  forall w m, In (w, m) (umsgs c u) -> cmsg_ok (c_rqs c) (N.of_nat (length (c_rqs c))) m.
Proof.
  intros Ha w m Hin. unfold umsgs in Hin. apply in_app_iff in Hin. destruct Hin as [Hin|Hin].
  - destruct (wu_retracts u); [destruct Hin|]. destruct Hin as [E|[]]. inversion E; subst. exact I.
  - destruct (map (ctp c) (wu_prefills u) ++ map (ctk c) (wu_assigned u)) as [|c0 cr] eqn:E; [destruct Hin|]. destruct Hin as [E1|[]]. inversion E1; subst.
    cbn [cmsg_ok]. rewrite <- E. rewrite forallb_app. apply andb_true_iff. split; apply forallb_forall; intros ct Hct; apply in_map_iff in Hct; destruct Hct as (z & <- & Hz).
    + unfold ct_ok. rewrite ctp_rv, ctp_nodes. reflexivity.
    + destruct z as [y v]. destruct (Ha y v Hz) as [Hv Ht]. apply ctk_ok; assumption.
Qed.

Lemma pdM_ok c m mn : POK c m mn -> forall w msg, In msg (msgs_for w (pdM c m mn)) -> cmsg_ok (c_rqs c) (N.of_nat (length (c_rqs c))) msg.
Proof.
  intros [Ha Hmn] w msg Hin. unfold msgs_for in Hin. apply in_map_iff in Hin. destruct Hin as ([w0 m0] & E & Hin). cbn in E. subst m0.
  apply filter_In in Hin. destruct Hin as [Hin _]. unfold pdM in Hin. apply in_app_iff in Hin. destruct Hin as [Hin|Hin].
  - apply in_flat_map in Hin. destruct Hin as (u & Hu & Hin). eapply (umsgs_ok c u); [|exact Hin]. intros y v Hyv. eapply Ha; eassumption.
  - apply in_map_iff in Hin. destruct Hin as (id & E & Hid). unfold mnmsg in E.
    destruct (find_task (c_tasks c) id) as [t|] eqn:Ef; [|inversion E; subst; exact I].
    destruct (t_state t) as [n1|w2 r2|w2|w2|w2 r2|[|w1 ws]|] eqn:Est; inversion E; subst; try exact I.
    destruct (Hmn id t w0 ws Hid Ef Est) as (r & Hr & Hz). cbn [cmsg_ok forallb]. rewrite andb_true_r.
    unfold ct_ok. cbn [ctask_of ct_rv ct_rq ct_nodes is_nil orb]. rewrite Hr, Hz, N.eqb_refl. cbn [andb]. rewrite andb_true_r.
    apply N.ltb_lt. assert ((N.to_nat (t_rq t) < length (c_rqs c))%nat) by (apply nth_error_Some; congruence). lia.
Qed.

Lemma pdM_newrq c m mn w : POK c m mn -> newrq_defs (msgs_for w (pdM c m mn)) = [].
Proof.
  intros HP. pose proof (pdM_ok c m mn HP w) as H. induction (msgs_for w (pdM c m mn)) as [|msg r IH]; [reflexivity|].
  pose proof (H msg (or_introl eq_refl)) as H0. unfold newrq_defs in *. cbn [flat_map]. destruct msg; cbn [cmsg_ok] in H0; try destruct H0; cbn [app]; apply IH; intros m1 H1; apply H; right; exact H1.
Qed.

(** the ids mentioned by the round *)
Definition ment (m : list wupd) (mn : list tid) (y : tid) : Prop :=
  (exists u, In u m /\ (In y (wu_retracts u) \/ In y (wu_prefills u) \/ In y (map fst (wu_assigned u)))) \/ In y mn.

Lemma pdM_tids c m mn w y : In y (flat_map dmsg_tids (msgs_for w (pdM c m mn))) -> ment m mn y.
Proof.
  intros H. apply in_flat_map in H. destruct H as (msg & Hmsg & Hy). unfold msgs_for in Hmsg. apply in_map_iff in Hmsg. destruct Hmsg as ([w0 m0] & E & Hin). cbn in E. subst m0.
  apply filter_In in Hin. destruct Hin as [Hin _]. unfold pdM in Hin. apply in_app_iff in Hin. destruct Hin as [Hin|Hin].
  - apply in_flat_map in Hin. destruct Hin as (u & Hu & Hin). left. exists u. split; [exact Hu|]. unfold umsgs in Hin. apply in_app_iff in Hin. destruct Hin as [Hin|Hin].
    + destruct (wu_retracts u) as [|i0 ir] eqn:E; [destruct Hin|]. destruct Hin as [E1|[]]. inversion E1; subst. left. exact Hy.
    + destruct (map (ctp c) (wu_prefills u) ++ map (ctk c) (wu_assigned u)) as [|c0 cr] eqn:E; [destruct Hin|]. destruct Hin as [E1|[]]. inversion E1; subst.
      cbn [dmsg_tids] in Hy. rewrite <- E, map_app, in_app_iff in Hy. destruct Hy as [Hy|Hy].
      * right. left. rewrite map_map in Hy. apply in_map_iff in Hy. destruct Hy as (z & <- & Hz). rewrite ctp_id. exact Hz.
      * right. right. rewrite map_map in Hy. apply in_map_iff in Hy. destruct Hy as (z & <- & Hz). rewrite ctk_id. apply in_map. exact Hz.
  - apply in_map_iff in Hin. destruct Hin as (id & E & Hid). right. unfold mnmsg in E.
    destruct (find_task (c_tasks c) id) as [t|] eqn:Ef; [|inversion E; subst; destruct Hy].
    destruct (t_state t) as [n1|w2 r2|w2|w2|w2 r2|[|w1 ws]|]; inversion E; subst; cbn in Hy; try (exfalso; exact Hy). destruct Hy as [<-|[]].
    rewrite (proj2 (find_task_some _ _ _ Ef)). exact Hid.
Qed.
