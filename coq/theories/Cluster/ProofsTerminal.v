(** C01 / C08: an outcome is final.  Once the job layer has recorded an outcome for a task (finished,
    failed, canceled or aborted) no sequence of client requests and task-progress callbacks - also
    ones the scheduler core would never produce - changes it; the job can only be forgotten as a
    whole. *)
From HQ Require Import Base.Prelude Cluster.Types Cluster.Core Cluster.Reactor Cluster.Worker Cluster.Server Cluster.Sys Cluster.Monitors Cluster.ProofsJob Cluster.ProofsMore.
From HQ Require Import Cluster.ModelFacts.
From Coq Require Import ZArith Lia.
Local Open Scope N_scope.

Arguments N.add : simpl never.
Arguments N.sub : simpl never.

Definition jpres (j j' : job) : Prop :=
  j_id j' = j_id j
  /\ forall t v, jt_find (j_tasks j) t = Some v -> terminal v -> jt_find (j_tasks j') t = Some v.

Lemma jpres_refl j : jpres j j.
Proof. split; auto. Qed.
Lemma jpres_trans a b c : jpres a b -> jpres b c -> jpres a c.
Proof. intros [I1 P1] [I2 P2]. split; [congruence|]. intros t v H Ht. apply P2; auto. Qed.

Definition tpres (s s' : st) (t : tid) : Prop :=
  forall v, task_state s t = Some v -> terminal v ->
    task_state s' t = Some v \/ find_job (h_jobs (hq_of s')) (fst t) = None.

Definition keeps_absent (s s' : st) : Prop :=
  forall id, find_job (h_jobs (hq_of s)) id = None -> find_job (h_jobs (hq_of s')) id = None.

(** What every job-layer primitive does to the job table: recorded outcomes stay, no job appears, the
    id counter stays. *)
Definition JP (s s' : st) : Prop :=
  (forall t, tpres s s' t) /\ keeps_absent s s' /\ h_counter (hq_of s') = h_counter (hq_of s).

Lemma JP_same s s' : hq_of s' = hq_of s -> JP s s'.
Proof.
  intros E. unfold JP, tpres, keeps_absent, task_state. rewrite E. repeat split; auto.
Qed.

(** Transitivity: the job is not re-created in the second step once it is gone after the first. *)
Lemma JP_trans s1 s2 s3 : JP s1 s2 -> JP s2 s3 -> JP s1 s3.
Proof.
  intros (T1 & K1 & C1) (T2 & K2 & C2). split; [|split; [intros id Hn; apply K2, K1, Hn | congruence]].
  intros t v Hv Ht. destruct (T1 t v Hv Ht) as [H|H]; [exact (T2 t v H Ht) | right; exact (K2 _ H)].
Qed.

Lemma JP_emit s s' o : JP s s' -> JP s (emit s' o).
Proof. intros H. exact H. Qed.

Lemma hq_get_find s id site j : hq_get_job s id site = Ok j -> find_job (h_jobs (hq_of s)) (j_id j) = Some j.
Proof.
  unfold hq_get_job, hq_of. destruct (find_job _ id) as [x|] eqn:E; [|discriminate].
  intros H; inversion H; subst. rewrite (find_job_id _ _ _ E). exact E.
Qed.

Lemma JP_set_job s j j' : find_job (h_jobs (hq_of s)) (j_id j) = Some j -> jpres j j' -> JP s (hq_set_job s j').
Proof.
  intros Hf [Hid P]. split; [|split; [|reflexivity]].
  - intros t v Hv Ht. left. unfold task_state in *. rewrite hq_set_job_find, Hid.
    destruct (N.eqb (fst t) (j_id j)) eqn:E; [|exact Hv].
    apply N.eqb_eq in E. rewrite E, Hf in Hv. apply P; assumption.
  - intros id Hn. rewrite hq_set_job_find, Hid. destruct (N.eqb id (j_id j)) eqn:E; [|exact Hn].
    apply N.eqb_eq in E. congruence.
Qed.

Lemma jpres_set_nonterminal j t v0 v1 :
  jt_find (j_tasks j) t = Some v0 -> ~ terminal v0 ->
  forall nrun nfin nfail ncanc nabort comp,
  jpres j (job_upd j (jt_set (j_tasks j) t v1) nrun nfin nfail ncanc nabort comp).
Proof.
  intros Hf Hn nrun nfin nfail ncanc nabort comp. split; [reflexivity|].
  intros t' v Hv Ht. cbn. destruct (N.eq_dec t' t) as [->|Hne].
  - rewrite Hf in Hv. inversion Hv; subst. contradiction.
  - rewrite jt_find_set_other by exact Hne. exact Hv.
Qed.

Lemma not_terminal_W : ~ terminal JW. Proof. intros [H|[H|[H|H]]]; discriminate. Qed.
Lemma not_terminal_R : ~ terminal JR. Proof. intros [H|[H|[H|H]]]; discriminate. Qed.

Lemma check_termination_JP s jid s' : check_termination s jid = Ok s' -> JP s s'.
Proof.
  unfold check_termination. intros H.
  apply bind_ok in H. destruct H as (j & Hj & H).
  apply bind_ok in H. destruct H as (na & _ & H).
  destruct na; [|inversion H; subst; apply JP_same; reflexivity].
  destruct (j_open j); inversion H; subst; [apply JP_same; reflexivity|].
  apply JP_emit, (JP_set_job s j); [exact (hq_get_find _ _ _ _ Hj)|]. split; [reflexivity | intros; assumption].
Qed.

Lemma process_task_started_JP s x inst ws rv s' : process_task_started s x inst ws rv = Ok s' -> JP s s'.
Proof.
  unfold process_task_started. intros H. apply bind_ok in H. destruct H as (j & Hj & H).
  destruct (jt_find (j_tasks j) (snd x)) as [v|] eqn:Ef; [|discriminate].
  inversion H; subst. apply JP_emit, (JP_set_job s j); [exact (hq_get_find _ _ _ _ Hj)|].
  destruct v; try apply jpres_refl. exact (jpres_set_nonterminal j _ JW _ Ef not_terminal_W _ _ _ _ _ _).
Qed.

Lemma process_task_finished_JP s x s' : process_task_finished s x = Ok s' -> JP s s'.
Proof.
  unfold process_task_finished. intros H. apply bind_ok in H. destruct H as (j & Hj & H).
  destruct (jt_find (j_tasks j) (snd x)) as [v|] eqn:Ef; [|discriminate].
  destruct v; try discriminate. apply bind_ok in H. destruct H as (nr & _ & H).
  eapply JP_trans; [|exact (check_termination_JP _ _ _ H)].
  apply JP_emit, (JP_set_job s j); [exact (hq_get_find _ _ _ _ Hj)|].
  exact (jpres_set_nonterminal j _ JR _ Ef not_terminal_R _ _ _ _ _ _).
Qed.

Lemma set_waiting_state_JP s x s' : set_waiting_state s x = Ok s' -> JP s s'.
Proof.
  unfold set_waiting_state. intros H. apply bind_ok in H. destruct H as (j & Hj & H).
  destruct (jt_find (j_tasks j) (snd x)) as [v|] eqn:Ef; [|discriminate].
  destruct v; try (inversion H; subst; apply JP_same; reflexivity).
  apply bind_ok in H. destruct H as (nr & _ & H). inversion H; subst.
  apply (JP_set_job s j); [exact (hq_get_find _ _ _ _ Hj)|].
  exact (jpres_set_nonterminal j _ JR _ Ef not_terminal_R _ _ _ _ _ _).
Qed.

Lemma set_waiting_all_JP ts : forall s s', set_waiting_all s ts = Ok s' -> JP s s'.
Proof.
  induction ts as [|x r IH]; cbn [set_waiting_all]; intros s s' H; [inversion H; subst; apply JP_same; reflexivity|].
  apply bind_ok in H. destruct H as (s1 & H1 & H2).
  exact (JP_trans _ _ _ (set_waiting_state_JP _ _ _ H1) (IH _ _ H2)).
Qed.

(** [mark_tasks] keeps every terminal state (it only accepts Waiting / Running tasks). *)
Lemma mark_tasks_jpres target site ids : forall j j', mark_tasks j ids target site = Ok j' -> jpres j j'.
Proof.
  induction ids as [|x r IH]; cbn [mark_tasks]; intros j j' H; [inversion H; apply jpres_refl|].
  destruct (negb (N.eqb (fst x) (j_id j))); [discriminate|].
  destruct (jt_find (j_tasks j) (snd x)) as [v|] eqn:Ef; [|discriminate].
  destruct v; try discriminate.
  - eapply jpres_trans; [|apply IH; exact H].
    unfold job_set_task. apply jpres_set_nonterminal with (v0 := JW); [exact Ef | apply not_terminal_W].
  - apply bind_ok in H. destruct H as (nr & _ & H).
    eapply jpres_trans; [|apply IH; exact H].
    apply jpres_set_nonterminal with (v0 := JR); [exact Ef | apply not_terminal_R].
Qed.

Lemma abort_tasks_JP s jid ids s' : abort_tasks s jid ids = Ok s' -> JP s s'.
Proof.
  unfold abort_tasks. destruct ids as [|i0 ir]; [intros H; inversion H; subst; apply JP_same; reflexivity|].
  intros H. apply bind_ok in H. destruct H as (j & Hj & H).
  apply bind_ok in H. destruct H as (j1 & Hm & H).
  eapply JP_trans; [|exact (check_termination_JP _ _ _ H)].
  apply JP_emit, (JP_set_job s j); [exact (hq_get_find _ _ _ _ Hj) | exact (mark_tasks_jpres _ _ _ _ _ Hm)].
Qed.

Lemma set_cancel_state_JP s jid ids s' : set_cancel_state s jid ids = Ok s' -> JP s s'.
Proof.
  unfold set_cancel_state. destruct ids as [|i0 ir]; [intros H; inversion H; subst; apply JP_same; reflexivity|].
  intros H. apply bind_ok in H. destruct H as (j & Hj & H).
  apply bind_ok in H. destruct H as (j1 & Hm & H).
  eapply JP_trans; [|exact (check_termination_JP _ _ _ H)].
  apply JP_emit, JP_emit, (JP_set_job s j); [exact (hq_get_find _ _ _ _ Hj) | exact (mark_tasks_jpres _ _ _ _ _ Hm)].
Qed.

Lemma set_failed_jpres j t j1 : set_failed j t = Ok j1 -> jpres j j1.
Proof.
  unfold set_failed. intros H. destruct (jt_find (j_tasks j) t) as [v|] eqn:Ef; [|discriminate].
  destruct v; try discriminate.
  - inversion H; subst. apply jpres_set_nonterminal with (v0 := JW); [exact Ef | apply not_terminal_W].
  - apply bind_ok in H. destruct H as (nr & _ & H). inversion H; subst.
    apply jpres_set_nonterminal with (v0 := JR); [exact Ef | apply not_terminal_R].
Qed.

Lemma process_task_failed_JP s x aborted k s' ids : process_task_failed s x aborted k = Ok (s', ids) -> JP s s'.
Proof.
  apply (process_task_failed_rel JP JP_trans abort_tasks_JP); [|exact check_termination_JP].
  intros s0 t k0 j j1 Hj Hj1. apply JP_emit, (JP_set_job s0 j); [exact (hq_get_find _ _ _ _ Hj) | exact (set_failed_jpres _ _ _ Hj1)].
Qed.

Lemma handle_close_JP s jid s' : handle_close s jid = Ok s' -> JP s s'.
Proof.
  unfold handle_close. intros H.
  destruct (find_job (hq_jobs s) jid) as [jb|] eqn:Ef; [|inversion H; subst; apply JP_same; reflexivity].
  destruct (j_open jb); [|inversion H; subst; apply JP_same; reflexivity].
  apply bind_ok in H. destruct H as (s1 & H1 & H). inversion H; subst.
  apply JP_emit. eapply JP_trans; [|exact (check_termination_JP _ _ _ H1)].
  apply JP_emit, (JP_set_job s jb); [rewrite (find_job_id _ _ _ Ef); exact Ef | split; [reflexivity | intros; assumption]].
Qed.

Lemma handle_cancel_JP s jid s' : handle_cancel s jid = Ok s' -> JP s s'.
Proof.
  apply (handle_cancel_rel JP JP_trans); [intros x r; apply JP_emit, JP_same; reflexivity | | exact set_cancel_state_JP].
  intros x ids x' X. exact (JP_same _ _ (on_cancel_tasks_hq _ _ _ X)).
Qed.

Theorem jstep_outcome_final s o s' t v :
  (forall j, In j (h_jobs (hq_of s)) -> j_id j < h_counter (hq_of s)) ->
  (match o with JForget _ => False | _ => True end) ->
  jstep s o = Ok s' -> task_state s t = Some v -> terminal v ->
  task_state s' t = Some v \/ find_job (h_jobs (hq_of s')) (fst t) = None.
Proof.
  intros Hfresh Hnf H Hv Ht. destruct o; cbn [jstep] in H.
  - exact (proj1 (process_task_started_JP _ _ _ _ _ _ H) t v Hv Ht).
  - exact (proj1 (process_task_finished_JP _ _ _ H) t v Hv Ht).
  - apply bind_ok in H. destruct H as ([s1 ids] & H1 & H). inversion H; subst.
    exact (proj1 (process_task_failed_JP _ _ _ _ _ _ H1) t v Hv Ht).
  - unfold process_worker_lost in H. apply bind_ok in H. destruct H as (s1 & H1 & H). inversion H; subst.
    exact (proj1 (set_waiting_all_JP _ _ _ H1) t v Hv Ht).
  - (* open: the new job gets the counter's id, which no existing job has *)
    unfold handle_open in H. inversion H; subst. clear H. rewrite !emit_hq. left.
    unfold task_state in *. unfold hq_of, hq_with in *. cbn. rewrite find_job_set. cbn.
    destruct (N.eqb (fst t) (hq_counter s)) eqn:E; [|exact Hv].
    exfalso. destruct (find_job (h_jobs (s_hq (fst s))) (fst t)) as [j|] eqn:Ef; [|discriminate].
    pose proof (find_job_id _ _ _ Ef) as Hid. specialize (Hfresh _ (find_job_in _ _ _ Ef)).
    apply N.eqb_eq in E. unfold hq_counter in E. lia.
  - exact (proj1 (handle_close_JP _ _ _ H) t v Hv Ht).
  - exact (proj1 (handle_cancel_JP _ _ _ H) t v Hv Ht).
  - destruct Hnf.
Qed.

(** Forgetting is the only way a recorded outcome disappears, and it removes the whole job - which
    is accepted only for a closed job whose tasks all have an outcome. *)
Theorem forget_only_terminated s jid s' :
  HOK (hq_of s) -> handle_forget s jid = Ok s' -> hq_of s' <> hq_of s ->
  exists j, find_job (hq_jobs s) jid = Some j /\ j_open j = false /\ cnt (j_tasks j) JW = 0 /\ cnt (j_tasks j) JR = 0.
Proof.
  intros H Hc Hne. unfold handle_forget in Hc.
  destruct (find_job (hq_jobs s) jid) as [j|] eqn:Ef; [|inversion Hc; subst; contradiction].
  exists j. split; [reflexivity|].
  rewrite (has_no_active_ok _ (H _ (find_job_in _ _ _ Ef))) in Hc. cbn [bind] in Hc.
  destruct (j_open j); cbn [negb andb] in Hc; [inversion Hc; subst; contradiction|].
  destruct (N.eqb (cnt (j_tasks j) JR) 0 && N.eqb (cnt (j_tasks j) JW) 0) eqn:E; [|inversion Hc; subst; contradiction].
  apply andb_true_iff in E. destruct E as [E1 E2]. apply N.eqb_eq in E1, E2. auto.
Qed.
