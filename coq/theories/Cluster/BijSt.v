(** C02 bijection, part 4: the reactor's functions on the whole state - the frame lemmas of
    [FrameGen] lifted to [st], the specification of [on_cancel_tasks]. *)
From HQ Require Import Base.Prelude Cluster.Types Cluster.Core Cluster.Reactor Cluster.Worker Cluster.Server Cluster.Sys Cluster.ProofsJob Cluster.ProofsMore Cluster.ProofsTerminal Cluster.ProofsStep Cluster.BijBase Cluster.FrameGen Cluster.BijCore Cluster.BijHq.
From HQ Require Import Cluster.ModelFacts.
From Coq Require Import ZArith Lia Sorting.Sorted.
Local Open Scope N_scope.

Arguments N.add : simpl never.
Arguments N.sub : simpl never.

Definition K (s : st) : list (tid * list tid) := keys (core_of s).

Lemma send_all_core msgs : forall s s', send_all s msgs = Ok s' -> core_of s' = core_of s.
Proof.
  induction msgs as [|[w m] r IH]; cbn [send_all]; intros s s' H; [inversion H; reflexivity|].
  apply bind_ok in H. destruct H as (s1 & H1 & H). rewrite (IH _ _ H). eapply send_worker_core; exact H1.
Qed.

Lemma send_redirected_core gs : forall s s', send_redirected s gs = Ok s' -> core_of s' = core_of s.
Proof.
  induction gs as [|[target ts] r IH]; cbn [send_redirected]; intros s s' H; [inversion H; reflexivity|].
  apply bind_ok in H. destruct H as (cts & _ & H). apply bind_ok in H. destruct H as (s1 & H1 & H).
  rewrite (IH _ _ H). eapply send_worker_core; exact H1.
Qed.

Lemma send_mapping_core m : forall s s', send_mapping s m = Ok s' -> core_of s' = core_of s.
Proof.
  induction m as [|u r IH]; cbn [send_mapping]; intros s s' H; [inversion H; reflexivity|].
  apply bind_ok in H. destruct H as (s1 & H1 & H).
  apply bind_ok in H. destruct H as (cts1 & _ & H).
  apply bind_ok in H. destruct H as (cts2 & _ & H).
  apply bind_ok in H. destruct H as (s2 & H2 & H).
  rewrite (IH _ _ H).
  assert (E2 : core_of s2 = core_of s1) by (destruct (cts1 ++ cts2); [inversion H2; reflexivity | eapply send_worker_core; exact H2]).
  assert (E1 : core_of s1 = core_of s) by (destruct (wu_retracts u); [inversion H1; reflexivity | eapply send_worker_core; exact H1]).
  congruence.
Qed.

Lemma send_mn_core l : forall s s', send_mn s l = Ok s' -> core_of s' = core_of s.
Proof.
  induction l as [|id r IH]; cbn [send_mn]; intros s s' H; [inversion H; reflexivity|].
  apply bind_ok in H. destruct H as (t & _ & H).
  destruct (t_state t); try discriminate. destruct ws; [discriminate|].
  apply bind_ok in H. destruct H as (s1 & H1 & H).
  rewrite (IH _ _ H). eapply send_worker_core; exact H1.
Qed.

Lemma try_remove_redirection_tasks c t c' : try_remove_redirection c t = Ok c' -> c_tasks c' = c_tasks c.
Proof.
  unfold try_remove_redirection. destruct (find_redirect _ _) as [[w rv]|]; intros H; inv_binds H; inversion H; reflexivity.
Qed.

Section Proj.
Variable A : Type.
Variable P : task -> A.
Hypothesis P_state : forall t s, P (with_state t s) = P t.
Hypothesis P_inst : forall t i, P (with_inst t i) = P t.

Ltac pside := rewrite ?P_state, ?P_inst; reflexivity.

Definition PK (s : st) : list (tid * A) := pkeys A P (core_of s).

Lemma process_retracted_PK s r s' : TS (core_of s) -> process_retracted s r = Ok s' -> PK s' = PK s.
Proof.
  unfold process_retracted. intros Hs H. destruct r; [inversion H; reflexivity|].
  apply bind_ok in H. destruct H as ([c' groups] & H1 & H). unfold PK. rewrite (send_all_core _ _ _ H).
  eapply (retract_states_pframe A P P_state); [exact Hs | exact H1].
Qed.

Lemma task_running_spec_P s w id rv s' b :
  TS (core_of s) -> task_running s w id rv = Ok (s', b) -> PK s' = PK s /\ forall x, active s' x <-> active s x.
Proof.
  intros Hs H. unfold task_running in H.
  destruct (find_task (c_tasks (core_of s)) id) as [t|] eqn:Ef; [|inversion H; subst; split; reflexivity].
  apply bind_ok in H. destruct H as (rq & _ & H). apply bind_ok in H. destruct H as ([s1 ws] & H1 & H).
  apply bind_ok in H. destruct H as (s2 & H2 & H). inversion H; subst.
  destruct (process_task_started_active _ _ _ _ _ _ H2) as [C2 A2].
  assert (E1 : PK s1 = PK s /\ hq_of s1 = hq_of s).
  { destruct (t_state t); try discriminate.
    - destruct (negb (N.eqb w0 w)); [discriminate|]. destruct (negb (N.eqb rv0 rv)); [discriminate|]. inversion H1; subst.
      split; [|reflexivity]. unfold PK. cbn. apply (upd_task_pframe A P (core_of s) id t); [exact Hs | exact Ef | reflexivity | pside].
    - destruct (negb (N.eqb w0 w)); [discriminate|]. inv_binds H1. inversion H1; subst.
      split; [|reflexivity]. unfold PK. cbn. apply (upd_task_pframe A P (core_of s) id t); [exact Hs | exact Ef | reflexivity | pside].
    - destruct (negb (N.eqb w0 w)); [discriminate|].
      apply bind_ok in H1. destruct H1 as (c1 & Hc1 & H1). inv_binds H1. inversion H1; subst.
      split; [|reflexivity]. unfold PK. cbn.
      pose proof ((try_remove_redirection_pframe A P) _ _ _ Hc1) as F1. pose proof (try_remove_redirection_tasks _ _ _ Hc1) as T1.
      change (pkeys A P c1 = pkeys A P (core_of s)) in F1. change (c_tasks c1 = c_tasks (core_of s)) in T1.
      transitivity (pkeys A P c1); [|exact F1].
      change (pkeys A P (upd_task c1 (with_state t (Running w rv))) = pkeys A P c1).
      apply (upd_task_pframe A P c1 id t); [eapply (PS_keys A P); [exact F1 | exact Hs] | rewrite T1; exact Ef | reflexivity | pside].
    - destruct ws0; [discriminate|]. destruct (N.eqb w0 w); [|discriminate]. inversion H1; subst. split; reflexivity. }
  destruct E1 as [E1 Eh]. split.
  - unfold PK in *. rewrite C2. exact E1.
  - intros x. rewrite A2. apply active_same. apply jt_same. exact Eh.
Qed.

Lemma requeue_PK s t c1 s' b :
  TS (core_of s) -> c_tasks c1 = c_tasks (core_of s) -> find_task (c_tasks (core_of s)) (t_id t) = Some t ->
  (do (qs, ret) <- add_ready_task (c_queues c1) (with_state t (Waiting 0));
   do s'' <- process_retracted (st_core s (with_queues (upd_task c1 (with_state t (Waiting 0))) qs)) ret;
   Ok (s'', true)) = Ok (s', b) -> PK s' = PK s.
Proof.
  intros Hs Et Ef Hx. inv_binds Hx. inversion Hx; subst.
  assert (Ek : pkeys A P c1 = PK s) by (unfold PK, pkeys; rewrite Et; reflexivity).
  assert (Eu : pkeys A P (upd_task c1 (with_state t (Waiting 0))) = PK s).
  { rewrite <- Ek. apply (upd_task_pframe A P c1 (t_id t) t); [eapply (PS_keys A P); [exact Ek | exact Hs] | rewrite Et; exact Ef | reflexivity | pside]. }
  match goal with X : process_retracted ?s0 _ = Ok _ |- _ =>
    rewrite (process_retracted_PK s0 _ _ (PS_keys A P _ _ Eu Hs) X) end.
  exact Eu.
Qed.

Lemma task_reject_PK s w id rv s' b : TS (core_of s) -> task_reject s w id rv = Ok (s', b) -> PK s' = PK s.
Proof.
  intros Hs H. unfold task_reject in H.
  destruct (find_task (c_tasks (core_of s)) id) as [t|] eqn:Ef; [|inversion H; subst; reflexivity].
  destruct (find_task_some _ _ _ Ef) as [_ Hid].
  assert (Ef' : find_task (c_tasks (core_of s)) (t_id t) = Some t) by (rewrite Hid; exact Ef).
  apply bind_ok in H. destruct H as (wk & _ & H). apply bind_ok in H. destruct H as (rq & _ & H).
  apply bind_ok in H. destruct H as ([c1 cont] & Hr & H).
  assert (Et : c_tasks c1 = c_tasks (core_of s)).
  { destruct (t_state t); try discriminate.
    - destruct (negb (N.eqb w w0)); [inversion Hr; reflexivity|].
      destruct rv as [v|]; [|inversion Hr; reflexivity].
      destruct (N.eqb v rv0); [inv_binds Hr|]; inversion Hr; reflexivity.
    - inv_binds Hr. inversion Hr; reflexivity.
    - destruct (negb (N.eqb w w0)); inversion Hr; reflexivity. }
  destruct (t_state t) eqn:Est; try (eapply requeue_PK; eassumption).
  destruct cont.
  - destruct (find_redirect (c_redirects c1) id) as [[target rvt]|].
    + apply bind_ok in H. destruct H as (s1 & H1 & H). inversion H; subst.
      unfold PK. rewrite (send_worker_core _ _ _ _ H1).
      assert (Ek : pkeys A P c1 = pkeys A P (core_of s)) by (unfold pkeys; rewrite Et; reflexivity).
      transitivity (pkeys A P c1); [|exact Ek].
      match goal with |- pkeys A P (core_of (st_core _ (upd_task ?cc ?x))) = _ =>
        change (pkeys A P (upd_task cc x) = pkeys A P cc); apply (upd_task_pframe A P cc (t_id t) t) end;
        [eapply (PS_keys A P); [exact Ek | exact Hs] | cbn; rewrite Et; exact Ef' | reflexivity | pside].
    + eapply requeue_PK; eassumption.
  - inversion H; subst. unfold PK, pkeys. cbn. rewrite Et. reflexivity.
Qed.

Lemma on_retract_response_PK s w ids s' : TS (core_of s) -> on_retract_response s w ids = Ok s' -> PK s' = PK s.
Proof.
  unfold on_retract_response. intros Hs H. destruct (retract_response_states _ w ids []) as [c' groups] eqn:E.
  apply bind_ok in H. destruct H as (s2 & H & H2).
  assert (E2 : PK s' = PK s2) by (destruct (retract_wakes _ _ _ _); inversion H2; subst s'; reflexivity).
  rewrite E2. unfold PK. rewrite (send_redirected_core _ _ _ H). cbn. eapply (retract_response_states_pframe A P P_state); [exact Hs | exact E].
Qed.

Lemma lost_retracting_PK l : forall s w s', TS (core_of s) -> lost_retracting s w l = Ok s' -> PK s' = PK s.
Proof.
  induction l as [|id r IH]; cbn [lost_retracting]; intros s w s' Hs H; [inversion H; reflexivity|].
  apply bind_ok in H. destruct H as (t & Ht & H). apply get_task_find in Ht.
  destruct (t_state t); try (eapply IH; eassumption).
  destruct (N.eqb w w0); [|eapply IH; eassumption].
  destruct (find_redirect _ id) as [[target rv]|].
  - apply bind_ok in H. destruct H as (s1 & H1 & H).
    assert (E : PK s1 = PK s).
    { unfold PK. rewrite (send_worker_core _ _ _ _ H1). cbn.
      apply (upd_task_pframe A P (with_redirects (core_of s) (del_redirect (c_redirects (core_of s)) id)) id t); [exact Hs | exact Ht | reflexivity | pside]. }
    rewrite <- E. eapply IH; [eapply (PS_keys A P); [exact E | exact Hs] | exact H].
  - match type of H with lost_retracting ?s1 _ _ = _ => assert (E : PK s1 = PK s) end.
    { unfold PK. cbn. apply (upd_task_pframe A P (core_of s) id t); [exact Hs | exact Ht | reflexivity | pside]. }
    rewrite <- E. eapply IH; [eapply (PS_keys A P); [exact E | exact Hs] | exact H].
Qed.

Lemma run_scheduling_PK s sol s' : TS (core_of s) -> run_scheduling s sol = Ok s' -> PK s' = PK s.
Proof.
  unfold run_scheduling. intros Hs H. destruct (negb (perm_of_set _ _)); [discriminate|].
  apply bind_ok in H. destruct H as ([c1 m1] & H1 & H).
  apply bind_ok in H. destruct H as ([c2 mn] & H2 & H).
  apply bind_ok in H. destruct H as ([c3 m3] & H3 & H).
  apply bind_ok in H. destruct H as (s1 & H4 & H).
  apply bind_ok in H. destruct H as (s2 & H5 & H). inversion H; subst.
  pose proof ((map_sn_pframe A P P_state) _ _ _ _ _ _ Hs H1) as E1.
  assert (Hs1 : TS c1) by (eapply (PS_keys A P); [exact E1 | exact Hs]).
  pose proof ((map_mn_pframe A P P_state) _ _ _ _ _ Hs1 H2) as E2.
  assert (Hs2 : TS c2) by (eapply (PS_keys A P); [exact E2 | exact Hs1]).
  assert (E3 : pkeys A P c3 = pkeys A P c2).
  { destruct (queues_top_priority (c_queues c2)); [|inversion H3; reflexivity].
    eapply (prefill_queues_pframe A P P_state); [exact Hs2 | exact H3]. }
  unfold PK. change (pkeys A P (core_of s2) = pkeys A P (core_of s)).
  rewrite (send_mn_core _ _ _ H5), (send_mapping_core _ _ _ H4).
  change (pkeys A P c3 = pkeys A P (core_of s)). rewrite E3, E2, E1. reflexivity.
Qed.

End Proj.

Lemma process_retracted_K s r s' : CS (core_of s) -> process_retracted s r = Ok s' -> K s' = K s.
Proof. intros Hs. exact (process_retracted_PK _ _ cs_state s r s' (CS_sorted _ Hs)). Qed.

Lemma task_running_spec s w id rv s' b :
  CS (core_of s) -> task_running s w id rv = Ok (s', b) -> K s' = K s /\ forall x, active s' x <-> active s x.
Proof. intros Hs. exact (task_running_spec_P _ _ cs_state s w id rv s' b (CS_sorted _ Hs)). Qed.

Lemma task_reject_K s w id rv s' b : CS (core_of s) -> task_reject s w id rv = Ok (s', b) -> K s' = K s.
Proof. intros Hs. exact (task_reject_PK _ _ cs_state s w id rv s' b (CS_sorted _ Hs)). Qed.

Lemma on_retract_response_K s w ids s' : CS (core_of s) -> on_retract_response s w ids = Ok s' -> K s' = K s.
Proof. intros Hs. exact (on_retract_response_PK _ _ cs_state s w ids s' (CS_sorted _ Hs)). Qed.

Lemma lost_retracting_K l : forall s w s', CS (core_of s) -> lost_retracting s w l = Ok s' -> K s' = K s.
Proof. intros s w s' Hs. exact (lost_retracting_PK _ _ cs_state cs_inst l s w s' (CS_sorted _ Hs)). Qed.

Lemma run_scheduling_K s sol s' : CS (core_of s) -> run_scheduling s sol = Ok s' -> K s' = K s.
Proof. intros Hs. exact (run_scheduling_PK _ _ cs_state s sol s' (CS_sorted _ Hs)). Qed.


Lemma collect_consumers_job fuel : forall ts frontier acc r j,
  KD (map key ts) -> (forall x, In x frontier -> fst x = j) -> (forall x, In x acc -> fst x = j) ->
  collect_consumers fuel ts frontier acc = Ok r -> forall x, In x r -> fst x = j.
Proof.
  induction fuel as [|k IH]; intros ts frontier acc r j Hd Hf Ha H; destruct frontier as [|id rest]; cbn [collect_consumers] in H;
    try (inversion H; subst; exact Ha).
  apply bind_ok in H. destruct H as (t & Ht & H).
  apply get_task_find in Ht. destruct (find_task_some _ _ _ Ht) as [Hin Hid].
  assert (Hc : forall x, In x (t_consumers t) -> fst x = j).
  { intros x Hx. rewrite <- (Hf id (or_introl eq_refl)), <- Hid. eapply Hd; [|exact Hx].
    change (In (key t) (map key ts)). apply in_map. exact Hin. }
  eapply IH; [exact Hd | | | exact H].
  - intros x Hx. apply in_app_iff in Hx. destruct Hx as [Hx|Hx]; [apply Hf; right; exact Hx|].
    apply filter_In in Hx. apply Hc. apply Hx.
  - intros x Hx. destruct (tid_insert_all_in _ _ _ Hx) as [H1|H1]; [|apply Ha; exact H1].
    apply filter_In in H1. apply Hc. apply H1.
Qed.

Lemma recursive_consumers_job ts t csm :
  KD (map key ts) -> In t ts -> recursive_consumers ts t = Ok csm -> forall x, In x csm -> fst x = fst (t_id t).
Proof.
  intros Hd Hin H. unfold recursive_consumers in H.
  assert (Hc : forall x, In x (t_consumers t) -> fst x = fst (t_id t)).
  { intros x Hx. eapply Hd; [|exact Hx]. change (In (key t) (map key ts)). apply in_map. exact Hin. }
  eapply collect_consumers_job; [exact Hd | exact Hc | | exact H].
  intros x Hx. destruct (tid_insert_all_in _ _ _ Hx) as [H1|[]]. apply Hc. exact H1.
Qed.

Lemma cancel_release_spec ids : forall s tu ru s' tu' ru',
  KD (K s) ->
  cancel_release s ids tu ru = Ok (s', tu', ru') ->
  K s' = K s /\
  (forall x, In x tu -> In x tu') /\
  (forall y, In y ids -> present (K s) y -> In y tu') /\
  (forall x, In x tu' -> In x tu \/ exists y, In y ids /\ present (K s) y /\ fst x = fst y).
Proof.
  induction ids as [|id r IH]; cbn [cancel_release]; intros s tu ru s' tu' ru' Hd H.
  - inversion H; subst. split; [reflexivity|]. split; [auto|]. split; [intros y []|]. auto.
  - destruct (find_task (c_tasks (core_of s)) id) as [t|] eqn:Ef.
    + destruct (find_task_some _ _ _ Ef) as [Hin Hid].
      assert (Hp : present (K s) id) by (apply find_task_present; eauto).
      apply bind_ok in H. destruct H as (csm & Hcs & H).
      pose proof (recursive_consumers_job _ _ _ Hd Hin Hcs) as Hjob. rewrite Hid in Hjob.
      apply bind_ok in H. destruct H as (rq & _ & H).
      set (tu1 := tid_insert_all csm (tid_insert id tu)) in *.
      (* every branch continues with a state that has the same keys *)
      assert (Hgen : forall s1 ru1, K s1 = K s -> cancel_release s1 r tu1 ru1 = Ok (s', tu', ru') ->
                K s' = K s /\ (forall x, In x tu -> In x tu') /\
                (forall y, id = y \/ In y r -> present (K s) y -> In y tu') /\
                (forall x, In x tu' -> In x tu \/ exists y, (id = y \/ In y r) /\ present (K s) y /\ fst x = fst y)).
      { intros s1 ru1 E1 H1. assert (Hd1 : KD (K s1)) by (rewrite E1; exact Hd).
        destruct (IH _ _ _ _ _ _ Hd1 H1) as (I1 & I2 & I3 & I4). rewrite E1 in *.
        split; [exact I1|]. split.
        { intros x Hx. apply I2. apply tid_insert_all_keeps. apply tid_insert_keeps. exact Hx. }
        split.
        { intros y [<-|Hy] Hpy; [apply I2; apply tid_insert_all_keeps; apply tid_insert_has | apply I3; assumption]. }
        intros x Hx. destruct (I4 x Hx) as [Hx1|(y & Hy & Hpy & Hf)].
        - destruct (tid_insert_all_in _ _ _ Hx1) as [Hc|Hc].
          + right. exists id. split; [left; reflexivity | split; [exact Hp | apply Hjob; exact Hc]].
          + destruct (tid_insert_in _ _ _ Hc) as [->|Hc2]; [right; exists id; auto | left; exact Hc2].
        - right. exists y. auto. }
      destruct (t_state t).
      * eapply Hgen; [|exact H]. reflexivity.
      * inv_binds H. eapply Hgen; [|exact H]. reflexivity.
      * inv_binds H. eapply Hgen; [|exact H]. reflexivity.
      * apply bind_ok in H. destruct H as (c' & Hc' & H). eapply Hgen; [|exact H].
        unfold K. cbn. eapply try_remove_redirection_frame; exact Hc'.
      * inv_binds H. eapply Hgen; [|exact H]. reflexivity.
      * apply bind_ok in H. destruct H as (c' & Hc' & H). destruct ws; [discriminate|]. eapply Hgen; [|exact H].
        unfold K. cbn. eapply reset_mn_all_frame; exact Hc'.
      * discriminate.
    + destruct (IH _ _ _ _ _ _ Hd H) as (I1 & I2 & I3 & I4). split; [exact I1|]. split; [exact I2|]. split.
      * intros y [<-|Hy] Hpy; [|apply I3; assumption].
        apply find_task_present in Hpy. destruct Hpy as (t & Ht). unfold K in Ht. congruence.
      * intros x Hx. destruct (I4 x Hx) as [H1|(y & Hy & Hpy & Hf)]; [left; exact H1 | right; exists y; split; [right; exact Hy | split; assumption]].
Qed.

Lemma on_cancel_tasks_spec s ids s' :
  CS (core_of s) -> KD (K s) -> on_cancel_tasks s ids = Ok s' ->
  exists X, shrinks (K s) (K s') X /\
    (forall y, In y ids -> present (K s) y -> In y X) /\
    (forall x, In x X -> present (K s) x /\ exists y, In y ids /\ present (K s) y /\ fst x = fst y).
Proof.
  intros Hs Hd H. unfold on_cancel_tasks in H.
  apply bind_ok in H. destruct H as ([[s1 tu] ru] & H1 & H). apply bind_ok in H. destruct H as (c' & H2 & H).
  destruct (cancel_release_spec _ _ _ _ _ _ _ Hd H1) as (E1 & _ & I3 & I4).
  assert (Hs1 : CS (core_of s1)) by (eapply CS_keys; [exact E1 | exact Hs]).
  destruct (remove_tasks_batched_shrinks _ _ _ Hs1 H2) as [S2 P2].
  exists tu. unfold K in *. rewrite (send_all_core _ _ _ H). cbn. rewrite <- E1. split; [exact S2|]. split.
  - intros y Hy Hpy. rewrite E1 in Hpy. apply I3; assumption.
  - intros x Hx. rewrite Forall_forall in P2. split; [apply P2; exact Hx|].
    destruct (I4 x Hx) as [[]|(y & Hy & Hpy & Hf)]. exists y. rewrite E1. auto.
Qed.

