(** C01, "start before finish", with "no back to waiting in between" in its observable form.

    [finished_after_started_no_loss]: in the output of every history of the system model
    (hypotheses: [op_wf] and the executable [run_fresh], under which the invariants of a reachable
    state [InvBundle.reachable_INV] were proved) every [EvFinished t] is preceded by an
    [EvStarted t i ws rv] such that, between that start and the finish, there is
      - no further start of [t] (it is the LAST start),
      - no terminal event (finished / failed / canceled / aborted) naming [t],
      - no [EvWLost w] of the ROOT worker [w] = head of [ws] of that start.
    In the model (as in the code) a task goes back to waiting only in [process_worker_lost], which
    emits [EvWLost w]; the tasks it resets are those the core shows running with root [w].  So the
    third clause says: the task the finish is reported for was never put back to waiting after the
    start the finish belongs to.  This is the model-level proof of what the trace monitor
    [Monitors.finish_after_start] checks on the implementation (minus its launcher clause).

    The hypothesis-free theorem [StartFin.finished_after_started] ([FAS]) is the part that needs
    no invariant of the core; [FAS2_FAS] shows [FAS2] implies it.

    The file begins with the worker loss, where the cross-layer part of the invariant is used: when
    [EvWLost w] is emitted, every task the job layer shows Running whose current start names the
    root worker [w] has just been put back to Waiting - because the core shows it running on [w]
    (invariant [IQ]), hence (worker-set invariant [WI], bijection [CB] of a reachable state) it is
    in the lost worker's assigned set, resp. is its multi-node task, and so in the list handed to
    [process_worker_lost]. *)
From HQ Require Import Base.Prelude Cluster.Types Cluster.Core Cluster.Reactor Cluster.Worker Cluster.Server Cluster.Sys Cluster.Monitors Cluster.RejHyp Cluster.ProofsJob Cluster.ProofsMore Cluster.ProofsFinal Cluster.BijBase Cluster.BijFinal Cluster.InvQStep Cluster.InvAll Cluster.InvBundle Cluster.ProofsOnce Cluster.StartFinBase Cluster.StartFin2Base Cluster.ProofsTerminal Cluster.ProofsStep Cluster.BijCore Cluster.BijHq Cluster.BijSt Cluster.BijReact Cluster.FrameGen Cluster.CrashFrame Cluster.InvWBase Cluster.InvWView Cluster.InvWCore Cluster.InvWServer Cluster.InvWFinal Cluster.ReactSplit Cluster.StartFin2Core Cluster.StartFin2Job.
From HQ Require Import Cluster.ModelFacts.
From Coq Require Import ZArith Lia Sorting.Sorted.
Local Open Scope N_scope.
Arguments N.add : simpl never.
Arguments N.sub : simpl never.

Lemma jr_in_core sy o t : INV sy -> task_state (sy, o) t = Some JR ->
  exists tk, find_task (c_tasks (s_core sy)) t = Some tk /\ t_state tk <> Finished.
Proof.
  intros HI Ht. pose proof (inv_cb _ HI) as HC.
  assert (Ha : active (sy, []) t).
  { rewrite task_state_jt in Ht. unfold active. change (jt (sy, o) (fst t)) with (jt (sy, []) (fst t)) in Ht.
    destruct (jt (sy, []) (fst t)) as [l|]; [|discriminate]. exists l. split; [reflexivity | right; exact Ht]. }
  apply (cb_b _ HC) in Ha. apply find_task_present in Ha. destruct Ha as (tk & Hf). exists tk. split; [exact Hf|].
  destruct (inv_qs _ HI) as (_ & Hq & _). destruct (find_task_some _ _ _ Hf) as [Hin _]. specialize (Hq tk Hin). cbv zeta in Hq.
  intros E. rewrite E in Hq. exact Hq.
Qed.

Lemma root_state c t tk w : core_root c t w -> find_task (c_tasks c) t = Some tk -> rootok (t_state tk) w.
Proof. intros Hr Hf. destruct (find_task_some _ _ _ Hf) as [Hin Hid]. exact (Hr tk Hin Hid). Qed.

Lemma perm_set_order order ts x : perm_of_set order ts = true -> tid_mem x ts = true -> In x order.
Proof.
  unfold perm_of_set. intros H Hm. apply andb_true_iff in H. destruct H as [_ H].
  rewrite forallb_forall in H. apply tid_mem_In. apply H. apply tid_mem_In. exact Hm.
Qed.

Lemma lost_prefilled_other l : forall c c' x, lost_prefilled c l = Ok c' -> ~ In x l ->
  find_task (c_tasks c') x = find_task (c_tasks c) x.
Proof.
  induction l as [|id r IH]; cbn [lost_prefilled]; intros c c' x H Hn; [inversion H; reflexivity|].
  apply bind_ok in H. destruct H as (t & Ht & H). apply bind_ok in H. destruct H as (q & _ & H). apply bind_ok in H. destruct H as (q' & _ & H).
  rewrite (IH _ _ x H) by (intros Hx; apply Hn; right; exact Hx).
  cbn [c_tasks with_queues upd_task with_tasks]. rewrite find_set_task. cbn [t_id with_state with_inst].
  destruct (find_task_some _ _ _ (get_task_find _ _ _ Ht)) as [_ Hid]. rewrite Hid.
  destruct (tid_eqb x id) eqn:E; [|reflexivity]. apply tid_eqb_eq in E. exfalso. apply Hn. left. symmetry. exact E.
Qed.

Lemma IQ_lost s s5 s6 w running reason (N : tid -> Prop) pre :
  hq_of s5 = hq_of s -> snd s5 = snd s -> RKN N (core_of s) (core_of s5) ->
  (forall t w', task_state s t = Some JR -> core_root (core_of s) t w' -> (w' = w \/ N t) -> In t running) ->
  process_worker_lost s5 w running reason = Ok s6 ->
  IQ s pre -> IQ s6 pre.
Proof.
  intros Hq Hs Hk HP H [HF HL]. unfold process_worker_lost in H. apply bind_ok in H. destruct H as (s5' & Hw & H). inversion H; subst. clear H.
  destruct (set_waiting_all_spec _ _ _ Hw) as (C1 & S1 & J1).
  unfold IQ. change (snd (emit s5' (OEv (EvWLost w reason)))) with (snd s5' ++ [OEv (EvWLost w reason)]). rewrite S1, Hs, app_assoc. split.
  - refine (fin_app (fun l t => cur l t <> None) _ _ HF _). intros p t q Ep. destruct (fin_one _ _ _ _ Ep) as [Eo _]. discriminate Eo.
  - intros t Ht. change (task_state (emit s5' (OEv (EvWLost w reason))) t) with (task_state s5' t) in Ht.
    destruct (J1 t Ht) as [Ht5 Hnr]. rewrite (task_state_same _ _ _ Hq) in Ht5.
    destruct (HL t Ht5) as (w' & Hc & Hr). exists w'. split.
    + rewrite cur_snoc, Hc. unfold cur_step. cbn [kind_of]. destruct (N.eqb w' w) eqn:E; [|reflexivity].
      apply N.eqb_eq in E. exfalso. apply Hnr. eapply HP; [exact Ht5 | exact Hr | left; exact E].
    + change (core_of (emit s5' (OEv (EvWLost w reason)))) with (core_of s5'). rewrite C1. eapply core_root_frame; [exact Hk | | exact Hr].
      intros Hn. apply Hnr. eapply HP; [exact Ht5 | exact Hr | right; exact Hn].
Qed.

(** The lost worker's own part of [on_remove_worker]: the frame, and "Running with root [w] or
    touched => in the running list". *)
Lemma lost_sets_spec sy o w wk c2 running retracted ao po :
  INV sy ->
  find_worker (c_workers (s_core sy)) w = Some wk ->
  lost_sets (with_workers (s_core sy) (del_worker (c_workers (s_core sy)) w)) w wk ao po = Ok (c2, running, retracted) ->
  exists N : tid -> Prop, RKN N (s_core sy) c2 /\
    forall t w', task_state (sy, o) t = Some JR -> core_root (s_core sy) t w' -> (w' = w \/ N t) -> In t running.
Proof.
  intros HI Ew Hr. unfold lost_sets in Hr.
  pose proof (inv_w _ HI) as HW. pose proof (cb_s _ (inv_cb _ HI)) as HCS. change (CS (s_core sy)) in HCS.
  set (c := s_core sy) in *. set (c0 := with_workers c (del_worker (c_workers c) w)) in *.
  (* what the invariants say about a Running task of the job layer *)
  assert (Hplace : forall t tk, find_task (c_tasks c) t = Some tk ->
            match t_state tk with
            | Running w1 _ => exists wk1 a p f, find_worker (c_workers c) w1 = Some wk1 /\ w_assign wk1 = Sn a p f /\ tid_mem t a = true
            | RunningMN ws => forall w1, In w1 ws -> exists wk1 root, find_worker (c_workers c) w1 = Some wk1 /\ w_assign wk1 = Mn t root
            | _ => True
            end).
  { intros t tk Hf. destruct (find_task_some _ _ _ Hf) as [Hin Hid]. pose proof (WI_task_places c HW HCS tk Hin) as X. rewrite Hid in X.
    destruct (t_state tk); try exact I; exact X. }
  (* a task the job layer shows Running, with its task record and root *)
  assert (Hjr_tk : forall t w', task_state (sy, o) t = Some JR -> core_root c t w' ->
            exists tk, find_task (c_tasks c) t = Some tk /\
              ((exists rv, t_state tk = Running w' rv) \/ (exists rest, t_state tk = RunningMN (w' :: rest)))).
  { intros t w' Hjr Hroot. destruct (jr_in_core sy o t HI Hjr) as (tk & Hf & Hnf). exists tk. split; [exact Hf|].
    pose proof (root_state _ _ _ _ Hroot Hf) as Hrk.
    destruct (t_state tk) as [n|w1 rv1|w1|w1|w1 rv1|ws|]; cbn in Hrk; try contradiction.
    - left. exists rv1. rewrite Hrk. reflexivity.
    - destruct ws as [|w1 rest]; [contradiction|]. right. exists rest. rewrite Hrk. reflexivity. }
  destruct (w_assign wk) as [a p f|mt root] eqn:Ea.
  - (* single-node worker *)
    destruct (negb (perm_of_set ao a && perm_of_set po p)) eqn:Ep; [discriminate|].
    apply negb_false_iff in Ep. apply andb_true_iff in Ep. destruct Ep as [Pa Pp].
    apply bind_ok in Hr. destruct Hr as (c1 & Hlp & Hla).
    exists (fun x => In x ao \/ In x po). split.
    + eapply (RKN_trans _ _ c0); [apply RKN_eq; reflexivity|].
      eapply RKN_trans; [eapply lost_prefilled_RK; [|exact Hlp]; intros id Hid; right; exact Hid|].
      eapply lost_assigned_RK; [|exact Hla]. intros id Hid. left. exact Hid.
    + intros t w' Hjr Hroot Hor.
      destruct (Hjr_tk t w' Hjr Hroot) as (tk & Hf & Hst).
      pose proof (Hplace t tk Hf) as Hpl.
      assert (HA : In t ao -> pl (t_state tk) = PA w \/ pl (t_state tk) = PR).
      { intros Hx. destruct (WI_member_A c w wk a p f t tk HW Ew Ea (perm_of_set_mem _ _ _ Pa Hx) Hf) as [X|[X _]]; [left | right]; exact X. }
      assert (HP : In t po -> pl (t_state tk) = PP w).
      { intros Hx. exact (WI_member_P c w wk a p f t tk HW Ew Ea (perm_of_set_mem _ _ _ Pp Hx) Hf). }
      destruct Hst as [(rv & Est)|(rest & Est)]; rewrite Est in Hpl, HA, HP; cbn [pl] in HA, HP.
      * (* Running w' rv *)
        assert (Ew' : w' = w).
        { destruct Hor as [E|[Hx|Hx]]; [exact E | | specialize (HP Hx); discriminate].
          destruct (HA Hx) as [X|X]; [inversion X; reflexivity | discriminate]. }
        subst w'. destruct Hpl as (wk1 & a1 & p1 & f1 & Ew1 & Ea1 & Hm).
        rewrite Ew in Ew1. inversion Ew1; subst wk1. rewrite Ea in Ea1. inversion Ea1; subst a1 p1 f1.
        assert (Hao : In t ao) by (eapply perm_set_order; eassumption).
        assert (Hnp : ~ In t po) by (intros Hx; specialize (HP Hx); discriminate).
        assert (Hf1 : find_task (c_tasks c1) t = Some tk) by (rewrite (lost_prefilled_other _ _ _ t Hlp Hnp); exact Hf).
        exact (lost_assigned_running _ _ _ _ _ _ _ t tk w rv Hla Hao Hf1 Est).
      * (* RunningMN (w' :: rest): impossible on a single-node worker / in its sets *)
        exfalso. destruct Hor as [E|[Hx|Hx]].
        -- subst w'. destruct (Hpl w (or_introl eq_refl)) as (wk1 & root1 & Ew1 & Ea1).
           rewrite Ew in Ew1. inversion Ew1; subst wk1. rewrite Ea in Ea1. discriminate.
        -- destruct (HA Hx) as [X|X]; discriminate.
        -- specialize (HP Hx). discriminate.
  - (* multi-node worker *)
    apply bind_ok in Hr. destruct Hr as (t0 & Ht0 & Hr).
    assert (Hf0 : find_task (c_tasks c) mt = Some t0) by (apply get_task_find in Ht0; exact Ht0).
    destruct (find_task_some _ _ _ Hf0) as [Hin0 Hid0].
    destruct (t_state t0) as [| | | | |ws0|] eqn:Est0; try discriminate.
    destruct ws0 as [|w0 rest0]; [discriminate|].
    (* a Running task of the job layer with root [w] is the worker's multi-node task *)
    assert (Hmn : forall t, task_state (sy, o) t = Some JR -> core_root c t w -> t = mt /\ w0 = w).
    { intros t Hjr Hroot. destruct (Hjr_tk t w Hjr Hroot) as (tk & Hf & Hst). pose proof (Hplace t tk Hf) as Hpl.
      destruct Hst as [(rv & Est)|(rest & Est)]; rewrite Est in Hpl.
      - exfalso. destruct Hpl as (wk1 & a1 & p1 & f1 & Ew1 & Ea1 & _). rewrite Ew in Ew1. inversion Ew1; subst wk1. rewrite Ea in Ea1. discriminate.
      - destruct (Hpl w (or_introl eq_refl)) as (wk1 & root1 & Ew1 & Ea1). rewrite Ew in Ew1. inversion Ew1; subst wk1.
        rewrite Ea in Ea1. inversion Ea1; subst. split; [reflexivity|].
        rewrite Hf0 in Hf. inversion Hf; subst tk. rewrite Est0 in Est. inversion Est; reflexivity. }
    destruct (N.eqb w w0) eqn:Eww.
    + apply bind_ok in Hr. destruct Hr as (c1 & Hc1 & Hr). apply bind_ok in Hr. destruct Hr as ([qs ret] & _ & Hr). inversion Hr; subst c2 running retracted.
      exists (fun y => y = mt). split.
      * match goal with |- RKN _ c ?cx => match cx with context [upd_task c1 ?x] => apply (RKN_updN_gen (fun y => y = mt) c c1 x cx) end end;
          [exact (reset_mn_all_tasks _ _ _ Hc1) | exact Hid0 | reflexivity].
      * intros t w' Hjr Hroot [E|E]; [|left; symmetry; exact E]. subst w'. left. symmetry. exact (proj1 (Hmn t Hjr Hroot)).
    + inversion Hr; subst c2 running retracted. exists (fun _ => False). split.
      * match goal with |- RKN _ c ?cx => match cx with context [upd_task c0 ?x] => apply (RKN_upd_gen (fun _ => False) c c0 x cx t0) end end;
          [reflexivity | exact Hin0 | reflexivity | | reflexivity].
        rewrite Est0. intros w1 H1. cbn [t_state with_state filter]. rewrite (N.eqb_sym w0 w), Eww. cbn [negb]. exact H1.
      * intros t w' Hjr Hroot [E|[]]. subst w'. exfalso. destruct (Hmn t Hjr Hroot) as [_ E0]. subst w0. rewrite N.eqb_refl in Eww. discriminate.
Qed.

Lemma SQ_on_remove_worker s w reason ao po to s' :
  INV (fst s) -> on_remove_worker s w reason ao po to = Ok s' -> SQ s s'.
Proof.
  intros HI Hc pre HIQ. destruct s as [sy o]. cbn [fst] in HI.
  destruct (on_remove_worker_split _ _ _ _ _ _ _ Hc) as (wk & c2 & running & retracted & s3 & s4 & s6 & s7 & Ew & Hr & H3 & H4 & Q4 & S4 & H6 & H7 & ->).
  destruct (lost_sets_spec sy o w wk c2 running retracted ao po HI Ew Hr) as (N & Hk & HP).
  assert (I6 : IQ s6 pre).
  { eapply (IQ_lost (sy, o) (broadcast s4 (DLostWorker w)) s6 w running reason N pre); [exact Q4 | exact S4 | | exact HP | exact H6 | exact HIQ].
    change (RKN N (s_core sy) (core_of s4)).
    eapply RKN_trans; [exact Hk|]. eapply RKN_trans; [|exact (process_retracted_RK N _ _ _ H4)].
    exact (lost_retracting_RK N _ _ _ _ H3). }
  apply (WQ_SQ s7 (ask_scheduling s7)); [apply WQ_same; reflexivity|].
  exact (WQ_SQ _ _ (WQ_lost_fail_running _ _ _ _ H7) pre I6).
Qed.

Theorem SQ_step s o s' outs : INV s -> step s o = Ok (s', outs) -> SQ (s, []) (s', outs).
Proof.
  intros HI H. destruct o; try (apply WQ_SQ; refine (step_WQ _ _ _ _ _ H); exact I).
  - apply step_lost_split in H. eapply SQ_on_remove_worker; [exact HI | exact H].
  - destruct (step_up_split _ _ _ _ H) as (p & m & rest & _ & _ & Hm).
    eapply (SQ_trans _ (with_procs s (set_proc (s_procs s) (wp_up p rest)), [OUp w m])).
    { apply WQ_SQ. eapply (WQ_ext _ _ [OUp w m]); [reflexivity | reflexivity | reflexivity | apply nojr_same; reflexivity | reflexivity]. }
    destruct m; [|apply WQ_SQ; eapply WQ_retract_response; exact Hm].
    eapply SQ_on_task_update; [|exact Hm]. apply TS_CS. exact (cb_s _ (inv_cb _ HI)).
Qed.

Theorem run_IQ ops : forall s pre s' outs,
  along INV s ops -> IQ (s, []) pre -> run s ops = Ok (s', outs) -> IQ (s', []) (pre ++ outs).
Proof.
  induction ops as [|o r IH]; cbn [run along]; intros s pre s' outs [HI HA] I H.
  - inversion H; subst. rewrite app_nil_r. exact I.
  - apply bind_ok in H. destruct H as ([s1 o1] & H1 & H). apply bind_ok in H. destruct H as ([s2 o2] & H2 & H). inversion H; subst.
    rewrite H1 in HA. rewrite app_assoc. eapply IH; [exact HA | | exact H2].
    pose proof (SQ_step _ _ _ _ HI H1 pre I) as I1. unfold IQ in *. cbn [snd] in *. rewrite app_nil_r. exact I1.
Qed.

Lemma IQ_init reserve maxfill : IQ (init_sys reserve maxfill, []) [].
Proof. split; [apply FAS2c_nil | intros t Ht; discriminate]. Qed.

Lemma along_INV ops reserve maxfill :
  Forall op_wf ops -> run_fresh (init_sys reserve maxfill) ops = true -> along INV (init_sys reserve maxfill) ops.
Proof.
  intros Hwf Hf.
  eapply (along_reach INV reserve maxfill) with (pre := []); [| constructor | reflexivity | reflexivity | exact Hwf | exact Hf].
  intros ops0 s0 outs0 Hw0 Hf0 Hr0. eapply reachable_INV; eassumption.
Qed.

(** C01, start before finish, no loss of the root worker in between. *)
Theorem finished_after_started_no_loss ops reserve maxfill s outs :
  Forall op_wf ops -> run_fresh (init_sys reserve maxfill) ops = true ->
  run (init_sys reserve maxfill) ops = Ok (s, outs) -> FAS2 outs.
Proof.
  intros Hwf Hf H. apply FAS2c_FAS2.
  destruct (run_IQ _ _ _ _ _ (along_INV _ _ _ Hwf Hf) (IQ_init reserve maxfill) H) as [HF _].
  cbn [snd app] in HF. rewrite app_nil_r in HF. exact HF.
Qed.

Corollary finished_after_started_no_loss_unfolded ops reserve maxfill s outs pre t post :
  Forall op_wf ops -> run_fresh (init_sys reserve maxfill) ops = true ->
  run (init_sys reserve maxfill) ops = Ok (s, outs) ->
  outs = pre ++ [OEv (EvFinished t)] ++ post ->
  exists a i ws rv w b, pre = a ++ [OEv (EvStarted t i ws rv)] ++ b /\ hd_error ws = Some w /\
    (forall i' ws' rv', ~ In (OEv (EvStarted t i' ws' rv')) b) /\
    ~ In t (terminal_ids b) /\
    (forall r, ~ In (OEv (EvWLost w r)) b).
Proof.
  intros Hwf Hf H E. destruct (finished_after_started_no_loss _ _ _ _ _ Hwf Hf H pre t post E) as (w & a & i & ws & rv & b & X).
  exists a, i, ws, rv, w, b. exact X.
Qed.

Corollary finished_after_started_no_loss_check ops reserve maxfill s outs :
  Forall op_wf ops -> run_fresh (init_sys reserve maxfill) ops = true ->
  run (init_sys reserve maxfill) ops = Ok (s, outs) -> fas2_check outs = true.
Proof. intros Hwf Hf H. apply fas2_check_spec. eapply finished_after_started_no_loss; eassumption. Qed.

(** The state half: a task the job layer shows Running at the end of the history has a current
    start (last start, no terminal event and no loss of its root worker after it), and every task
    record with its id in the core is running with that root worker. *)
Theorem running_has_current_start ops reserve maxfill s outs t :
  Forall op_wf ops -> run_fresh (init_sys reserve maxfill) ops = true ->
  run (init_sys reserve maxfill) ops = Ok (s, outs) ->
  task_state (s, []) t = Some JR ->
  exists w, live2 outs t w /\
    forall tk, find_task (c_tasks (s_core s)) t = Some tk ->
      (exists rv, t_state tk = Running w rv) \/ (exists rest, t_state tk = RunningMN (w :: rest)).
Proof.
  intros Hwf Hf H Ht.
  destruct (run_IQ _ _ _ _ _ (along_INV _ _ _ Hwf Hf) (IQ_init reserve maxfill) H) as [_ HL].
  destruct (HL t Ht) as (w & Hc & Hr). cbn [snd app] in Hc. rewrite app_nil_r in Hc.
  exists w. split; [apply cur_live2; exact Hc|].
  intros tk Hfk. pose proof (root_state _ _ _ _ Hr Hfk) as Hrk.
  assert (HI : INV s) by (eapply reachable_INV; eassumption).
  destruct (jr_in_core s [] t HI Ht) as (tk' & Hf' & Hnf). change (core_of (s, [])) with (s_core s) in Hfk. rewrite Hfk in Hf'. inversion Hf'; subst tk'.
  destruct (t_state tk) as [n|w1 rv1|w1|w1|w1 rv1|ws|]; cbn in Hrk; try contradiction.
  - left. exists rv1. rewrite Hrk. reflexivity.
  - destruct ws as [|w1 rest]; [contradiction|]. right. exists rest. rewrite Hrk. reflexivity.
Qed.

(** A task is started on worker 1, worker 1 is lost, the task is started again on worker 2 and
    finishes there. *)
Definition restart_ops : list op :=
  [OpConnect [20000; 0; 0] 0; OpConnect [20000; 0; 0] 0;
   OpSubmit None [] None once_rq 0%Z CUnl false None;
   OpSched (mkSol [(0, 0, [(1, 1)])] [] [1; 2] []);
   OpDDown 1 []; OpDDown 1 []; OpDDown 1 []; OpDUp 1;
   OpLost 1 1 [(1, 0)] [] [(1, 0)];
   OpSched (mkSol [(0, 0, [(2, 1)])] [] [2] []);
   OpDDown 2 []; OpDDown 2 []; OpDDown 2 []; OpDUp 2; OpEnd 2 (1, 0) EndOk; OpDUp 2].

Example fas2_example : Forall op_wf restart_ops /\ run_fresh (init_sys 0 2) restart_ops = true /\
  exists s outs, run (init_sys 0 2) restart_ops = Ok (s, outs)
  /\ filter (fun x => match x with OEv _ => true | _ => false end) outs =
       [OEv (EvWConn 1); OEv (EvWConn 2); OEv (EvSubmit 1 true 1);
        OEv (EvStarted (1, 0) 0 [1] 0); OEv (EvWLost 1 1);
        OEv (EvStarted (1, 0) 1 [2] 0); OEv (EvFinished (1, 0)); OEv (EvCompleted 1)]
  /\ fas2_check outs = true.
Proof.
  split; [repeat constructor|]. split; [vm_compute; reflexivity|].
  do 2 eexists. split; [vm_compute; reflexivity|]. split; vm_compute; reflexivity.
Qed.

(** The check distinguishes: a finish after the loss of the start's root worker is rejected (it is
    accepted by the weaker [fas_check]); the loss of another worker, or a restart, is fine. *)
Example fas2_check_rejects :
  fas2_check [OEv (EvStarted (1, 0) 0 [1] 0); OEv (EvWLost 1 1); OEv (EvFinished (1, 0))] = false
  /\ fas_check [OEv (EvStarted (1, 0) 0 [1] 0); OEv (EvWLost 1 1); OEv (EvFinished (1, 0))] = true
  /\ fas2_check [OEv (EvStarted (1, 0) 0 [1] 0); OEv (EvWLost 2 1); OEv (EvFinished (1, 0))] = true
  /\ fas2_check [OEv (EvStarted (1, 0) 0 [1; 2] 0); OEv (EvWLost 2 1); OEv (EvFinished (1, 0))] = true
  /\ fas2_check [OEv (EvStarted (1, 0) 0 [1; 2] 0); OEv (EvWLost 1 1); OEv (EvFinished (1, 0))] = false
  /\ fas2_check [OEv (EvStarted (1, 0) 0 [1] 0); OEv (EvWLost 1 1); OEv (EvStarted (1, 0) 1 [2] 0); OEv (EvFinished (1, 0))] = true
  /\ fas2_check [OEv (EvStarted (1, 0) 0 [1] 0); OEv (EvAborted [(1, 0)]); OEv (EvFinished (1, 0))] = false
  /\ fas2_check [OEv (EvFinished (1, 0))] = false.
Proof. vm_compute. repeat split; reflexivity. Qed.

Print Assumptions finished_after_started_no_loss.
Print Assumptions running_has_current_start.
Print Assumptions fas2_check_spec.
