(** The shape of [Sys.step], for whoever carries a relation [R] between server states through the
    model.  [step_walk_op] is the case split over the operations: [R] holds across [step] if it
    holds across each entry point of the server and each operation of a worker process; [R] may
    depend on the operation, and a relation that needs an invariant [P] as side condition fits as
    [P s -> P s' /\ Q s s'].  [step_walk] (one relation, a set [ok] of operations covered) and
    [step_walk_core] (a relation that looks at the core only) are its special cases.  The entry
    points follow from their pieces for a transitive [R]: a batch of updates
    ([apply_updates_rel_inv], with a side condition handed along the batch; [Updates], [UpdatesOf]
    and [Reactor] are its special cases), the removal of a worker ([on_remove_worker_rel] over
    [lost_sets] and [lost_fail_running_rel]), the submits ([SubmitPass]). *)
From HQ Require Import Base.Prelude Cluster.Types Cluster.Core Cluster.Reactor Cluster.Worker Cluster.Server Cluster.Sys Cluster.RejHyp.
From Coq Require Import ZArith.
Local Open Scope N_scope.

Section WalkOp.
Variable R : op -> st -> st -> Prop.
Hypothesis R_connect : forall s rs g s', on_new_worker (s, []) rs g = Ok s' -> R (OpConnect rs g) (s, []) s'.
Hypothesis R_lost : forall s w reason a p t pw s', find_proc (s_procs s) w = Some pw ->
  on_remove_worker (s, []) w reason a p t = Ok s' -> R (OpLost w reason a p t) (s, []) s'.
Hypothesis R_refused : forall s job ids entries rq prio cl tlim mf c a,
  R (OpSubmit job ids entries rq prio cl tlim mf) (s, []) (s, [OResp (RSubmitErr c a)]).
Hypothesis R_refusedg : forall s job rqs ts mf c a, R (OpSubmitG job rqs ts mf) (s, []) (s, [OResp (RSubmitErr c a)]).
Hypothesis R_submit : forall s job ids entries rq prio cl tlim mf s',
  handle_submit_array (s, []) job ids entries rq prio cl tlim mf = Ok s' -> R (OpSubmit job ids entries rq prio cl tlim mf) (s, []) s'.
Hypothesis R_submitg : forall s job rqs ts mf s',
  handle_submit_graph (s, []) job rqs ts mf = Ok s' -> R (OpSubmitG job rqs ts mf) (s, []) s'.
Hypothesis R_open : forall s mf s', handle_open (s, []) mf = Ok s' -> R (OpOpen mf) (s, []) s'.
Hypothesis R_close : forall s j s', handle_close (s, []) j = Ok s' -> R (OpClose j) (s, []) s'.
Hypothesis R_cancel : forall s j s', handle_cancel (s, []) j = Ok s' -> R (OpCancel j) (s, []) s'.
Hypothesis R_forget : forall s j s', handle_forget (s, []) j = Ok s' -> R (OpForget j) (s, []) s'.
(** the head [m] of the worker's up channel is taken off, then processed *)
Hypothesis R_up : forall s w p m rest s', find_proc (s_procs s) w = Some p -> p_up p = m :: rest ->
  match m with
  | UUpdates us => on_task_update (with_procs s (set_proc (s_procs s) (wp_up p rest)), [OUp w m]) w us
  | URetractResponse ids => on_retract_response (with_procs s (set_proc (s_procs s) (wp_up p rest)), [OUp w m]) w ids
  end = Ok s' -> R (OpDUp w) (s, []) s'.
Hypothesis R_sched : forall s sol s', c_flag (s_core s) = true -> run_scheduling (s, []) sol = Ok s' -> R (OpSched sol) (s, []) s'.
Hypothesis R_prune : forall s lj, live_jobs (h_jobs (s_hq s)) = Ok lj -> R OpPrune (s, []) (s, [OPrune lj (map p_id (s_procs s))]).
(** a worker process moves: only [s_procs] changes, the outputs are its message and its launches *)
Hypothesis R_down : forall s w order p m rest p' ls, find_proc (s_procs s) w = Some p -> p_down p = m :: rest ->
  process_worker_message (wp_down p rest) m order = Ok (p', ls) ->
  R (OpDDown w order) (s, []) (with_procs s (set_proc (s_procs s) p'), ODown w m :: map OLaunch ls).
Hypothesis R_end : forall s w t how p p' ls, find_proc (s_procs s) w = Some p -> task_end p t how = Ok (p', ls) ->
  R (OpEnd w t how) (s, []) (with_procs s (set_proc (s_procs s) p'), map OLaunch ls).
Hypothesis R_failnext : forall s w t p, find_proc (s_procs s) w = Some p ->
  R (OpFailNext w t) (s, []) (with_procs s (set_proc (s_procs s) (wp_failnext p (p_failnext p ++ [t]))), []).
Hypothesis R_timer : forall s, R OpTimer (s, []) (with_procs s (map (fun p => fold_left timer_fire (p_timers p) p) (s_procs s)), []).

Theorem step_walk_op s o s' outs : step s o = Ok (s', outs) -> R o (s, []) (s', outs).
Proof.
  intros H. destruct o; cbn [step] in H.
  - exact (R_connect _ _ _ _ H).
  - destruct (find_proc (s_procs s) w) as [pw|] eqn:Ep; [|discriminate]. exact (R_lost _ _ _ _ _ _ _ _ Ep H).
  - destruct (bad_submit_lengths _ _); [inversion H; subst; apply R_refused|]. exact (R_submit _ _ _ _ _ _ _ _ _ _ H).
  - destruct (bad_graph_rq _ _); [inversion H; subst; apply R_refusedg|].
    destruct (dead_dep _ _ _); [inversion H; subst; apply R_refusedg|]. exact (R_submitg _ _ _ _ _ _ H).
  - exact (R_open _ _ _ H).
  - exact (R_close _ _ _ H).
  - exact (R_cancel _ _ _ H).
  - exact (R_forget _ _ _ H).
  - destruct (find_proc (s_procs s) w) as [p|] eqn:Ep; [|discriminate]. destruct (p_down p) as [|m rest] eqn:Ed; [discriminate|].
    apply bind_ok in H. destruct H as ([p' ls] & Hm & H). inversion H; subst. exact (R_down _ _ _ _ _ _ _ _ Ep Ed Hm).
  - destruct (find_proc (s_procs s) w) as [p|] eqn:Ep; [|discriminate]. destruct (p_up p) as [|m rest] eqn:Eu; [discriminate|].
    apply (R_up s w p m rest _ Ep Eu). destruct m; exact H.
  - destruct (c_flag (s_core s)) eqn:Ef; [|discriminate]. exact (R_sched _ _ _ Ef H).
  - destruct (find_proc (s_procs s) w) as [p|] eqn:Ep; [|discriminate].
    apply bind_ok in H. destruct H as ([p' ls] & He & H). inversion H; subst. exact (R_end _ _ _ _ _ _ _ Ep He).
  - destruct (find_proc (s_procs s) w) as [p|] eqn:Ep; [|discriminate]. inversion H; subst. exact (R_failnext _ _ _ _ Ep).
  - inversion H; subst. apply R_timer.
  - apply bind_ok in H. destruct H as (lj & Hl & H). inversion H; subst. exact (R_prune _ _ Hl).
Qed.
End WalkOp.

Section Walk.
Variable R : st -> st -> Prop.
Variable ok : op -> Prop.
Hypothesis R_connect : forall s rs g s', ok (OpConnect rs g) -> on_new_worker (s, []) rs g = Ok s' -> R (s, []) s'.
Hypothesis R_lost : forall s w reason a p t pw s', ok (OpLost w reason a p t) -> find_proc (s_procs s) w = Some pw ->
  on_remove_worker (s, []) w reason a p t = Ok s' -> R (s, []) s'.
Hypothesis R_refused : forall s o c a, ok o -> R (s, []) (s, [OResp (RSubmitErr c a)]).
Hypothesis R_submit : forall s job ids entries rq prio cl tlim mf s', ok (OpSubmit job ids entries rq prio cl tlim mf) ->
  handle_submit_array (s, []) job ids entries rq prio cl tlim mf = Ok s' -> R (s, []) s'.
Hypothesis R_submitg : forall s job rqs ts mf s', ok (OpSubmitG job rqs ts mf) ->
  handle_submit_graph (s, []) job rqs ts mf = Ok s' -> R (s, []) s'.
Hypothesis R_open : forall s mf s', ok (OpOpen mf) -> handle_open (s, []) mf = Ok s' -> R (s, []) s'.
Hypothesis R_close : forall s j s', ok (OpClose j) -> handle_close (s, []) j = Ok s' -> R (s, []) s'.
Hypothesis R_cancel : forall s j s', ok (OpCancel j) -> handle_cancel (s, []) j = Ok s' -> R (s, []) s'.
Hypothesis R_forget : forall s j s', ok (OpForget j) -> handle_forget (s, []) j = Ok s' -> R (s, []) s'.
Hypothesis R_up : forall s w p m rest s', ok (OpDUp w) -> find_proc (s_procs s) w = Some p -> p_up p = m :: rest ->
  match m with
  | UUpdates us => on_task_update (with_procs s (set_proc (s_procs s) (wp_up p rest)), [OUp w m]) w us
  | URetractResponse ids => on_retract_response (with_procs s (set_proc (s_procs s) (wp_up p rest)), [OUp w m]) w ids
  end = Ok s' -> R (s, []) s'.
Hypothesis R_sched : forall s sol s', ok (OpSched sol) -> c_flag (s_core s) = true -> run_scheduling (s, []) sol = Ok s' -> R (s, []) s'.
Hypothesis R_prune : forall s lj, ok OpPrune -> live_jobs (h_jobs (s_hq s)) = Ok lj -> R (s, []) (s, [OPrune lj (map p_id (s_procs s))]).
Hypothesis R_down : forall s w order p m rest p' ls, ok (OpDDown w order) -> find_proc (s_procs s) w = Some p -> p_down p = m :: rest ->
  process_worker_message (wp_down p rest) m order = Ok (p', ls) ->
  R (s, []) (with_procs s (set_proc (s_procs s) p'), ODown w m :: map OLaunch ls).
Hypothesis R_end : forall s w t how p p' ls, ok (OpEnd w t how) -> find_proc (s_procs s) w = Some p -> task_end p t how = Ok (p', ls) ->
  R (s, []) (with_procs s (set_proc (s_procs s) p'), map OLaunch ls).
Hypothesis R_failnext : forall s w t p, ok (OpFailNext w t) -> find_proc (s_procs s) w = Some p ->
  R (s, []) (with_procs s (set_proc (s_procs s) (wp_failnext p (p_failnext p ++ [t]))), []).
Hypothesis R_timer : forall s, ok OpTimer -> R (s, []) (with_procs s (map (fun p => fold_left timer_fire (p_timers p) p) (s_procs s)), []).

Theorem step_walk s o s' outs : ok o -> step s o = Ok (s', outs) -> R (s, []) (s', outs).
Proof.
  intros Ho H. revert Ho. apply (step_walk_op (fun o a b => ok o -> R a b)); [..|exact H]; clear s o s' outs H.
  - intros s rs g s' H Ho. exact (R_connect _ _ _ _ Ho H).
  - intros s w reason a p t pw s' Ep H Ho. exact (R_lost _ _ _ _ _ _ _ _ Ho Ep H).
  - intros s job ids entries rq prio cl tlim mf c a Ho. exact (R_refused _ _ _ _ Ho).
  - intros s job rqs ts mf c a Ho. exact (R_refused _ _ _ _ Ho).
  - intros s job ids entries rq prio cl tlim mf s' H Ho. exact (R_submit _ _ _ _ _ _ _ _ _ _ Ho H).
  - intros s job rqs ts mf s' H Ho. exact (R_submitg _ _ _ _ _ _ Ho H).
  - intros s mf s' H Ho. exact (R_open _ _ _ Ho H).
  - intros s j s' H Ho. exact (R_close _ _ _ Ho H).
  - intros s j s' H Ho. exact (R_cancel _ _ _ Ho H).
  - intros s j s' H Ho. exact (R_forget _ _ _ Ho H).
  - intros s w p m rest s' Ep Eu H Ho. exact (R_up _ _ _ _ _ _ Ho Ep Eu H).
  - intros s sol s' Ef H Ho. exact (R_sched _ _ _ Ho Ef H).
  - intros s lj Hl Ho. exact (R_prune _ _ Ho Hl).
  - intros s w order p m rest p' ls Ep Ed Hm Ho. exact (R_down _ _ _ _ _ _ _ _ Ho Ep Ed Hm).
  - intros s w t how p p' ls Ep He Ho. exact (R_end _ _ _ _ _ _ _ Ho Ep He).
  - intros s w t p Ep Ho. exact (R_failnext _ _ _ _ Ho Ep).
  - intros s Ho. exact (R_timer _ Ho).
Qed.
End Walk.

Lemma step_up_rel (R : st -> st -> Prop) s w p m rest s' :
  (forall a b c, R a b -> R b c -> R a c) ->
  R (s, []) (with_procs s (set_proc (s_procs s) (wp_up p rest)), [OUp w m]) ->
  (forall x us x', on_task_update x w us = Ok x' -> R x x') ->
  (forall x ids x', on_retract_response x w ids = Ok x' -> R x x') ->
  match m with
  | UUpdates us => on_task_update (with_procs s (set_proc (s_procs s) (wp_up p rest)), [OUp w m]) w us
  | URetractResponse ids => on_retract_response (with_procs s (set_proc (s_procs s) (wp_up p rest)), [OUp w m]) w ids
  end = Ok s' -> R (s, []) s'.
Proof.
  intros R_trans R1 Ru Rr H. eapply R_trans; [exact R1|]. destruct m; [exact (Ru _ _ _ H) | exact (Rr _ _ _ H)].
Qed.

(** The side condition [P] is handed on along the batch: it may speak of the state, the worker and
    the updates still to come. *)
Lemma apply_updates_rel_inv (R : st -> st -> Prop) (P : st -> wid -> list wupdate -> Prop) :
  (forall s, R s s) -> (forall a b c, R a b -> R b c -> R a c) ->
  (forall s w u r s' n, P s w (u :: r) -> apply_one s w u = Ok (s', n) -> R s s' /\ P s' w r) ->
  forall us s w need s' need', P s w us -> apply_updates s w us need = Ok (s', need') -> R s s'.
Proof.
  intros R_refl R_trans R_one. induction us as [|u r IH]; intros s w need s' need' HP H; [inversion H; apply R_refl|].
  rewrite apply_updates_cons in H. apply bind_ok in H. destruct H as ([s1 n1] & Hu & H).
  destruct (R_one _ _ _ _ _ _ HP Hu) as [R1 P1]. eapply R_trans; [exact R1 | eapply IH; [exact P1 | exact H]].
Qed.

Section Updates.
Variable R : st -> st -> Prop.
Hypothesis R_refl : forall s, R s s.
Hypothesis R_trans : forall a b c, R a b -> R b c -> R a c.
Hypothesis R_one : forall s w u s' n, apply_one s w u = Ok (s', n) -> R s s'.

Lemma apply_updates_rel us : forall s w need s' need', apply_updates s w us need = Ok (s', need') -> R s s'.
Proof.
  intros s w need s' need' H.
  exact (apply_updates_rel_inv R (fun _ _ _ => True) R_refl R_trans (fun x w0 u r x' n _ Hu => conj (R_one _ _ _ _ _ Hu) I)
           us s w need s' need' I H).
Qed.

Lemma on_task_update_rel s w us s' :
  (forall x, R x (ask_scheduling x)) -> on_task_update s w us = Ok s' -> R s s'.
Proof.
  intros Ra H. unfold on_task_update in H. apply bind_ok in H. destruct H as ([s1 need] & Hu & H).
  pose proof (apply_updates_rel _ _ _ _ _ _ Hu) as T1.
  destruct (need && _); inversion H; subst; [eapply R_trans; [exact T1 | apply Ra] | exact T1].
Qed.
End Updates.

(** From the reactor's five functions, which is how the families state it. *)
Section Reactor.
Variable R : st -> st -> Prop.
Hypothesis R_refl : forall s, R s s.
Hypothesis R_trans : forall a b c, R a b -> R b c -> R a c.
Hypothesis R_finished : forall s w id s' b, task_finished s w id = Ok (s', b) -> R s s'.
Hypothesis R_failed : forall s w id k s', task_failed s w id k = Ok s' -> R s s'.
Hypothesis R_running : forall s w id rv s' b, task_running s w id rv = Ok (s', b) -> R s s'.
Hypothesis R_reject : forall s w id rv s' b, task_reject s w id rv = Ok (s', b) -> R s s'.
Hypothesis R_enabled : forall s w rq rv s', request_enabled s w rq rv = Ok s' -> R s s'.

Lemma apply_one_walk s w u s' n : apply_one s w u = Ok (s', n) -> R s s'.
Proof.
  destruct u; cbn [apply_one]; intros H.
  - exact (R_finished _ _ _ _ _ H).
  - apply bind_ok in H. destruct H as (s2 & H2 & H). inversion H; subst. exact (R_failed _ _ _ _ _ H2).
  - exact (R_running _ _ _ _ _ _ H).
  - exact (R_running _ _ _ _ _ _ H).
  - exact (R_reject _ _ _ _ _ _ H).
  - apply bind_ok in H. destruct H as (s2 & H2 & H). inversion H; subst. exact (R_enabled _ _ _ _ _ H2).
Qed.

Lemma apply_updates_walk us : forall s w need s' need', apply_updates s w us need = Ok (s', need') -> R s s'.
Proof. exact (apply_updates_rel R R_refl R_trans apply_one_walk us). Qed.

Lemma on_task_update_walk s w us s' : (forall x, R x (ask_scheduling x)) -> on_task_update s w us = Ok s' -> R s s'.
Proof. exact (on_task_update_rel R R_refl R_trans apply_one_walk s w us s'). Qed.
End Reactor.

Lemma lost_fail_running_rel (R : st -> st -> Prop) :
  (forall s, R s s) -> (forall a b c, R a b -> R b c -> R a c) ->
  (forall s id t, find_task (c_tasks (core_of s)) id = Some t ->
     R s (st_core s (upd_task (core_of s) (with_crash t (t_crash t + 1))))) ->
  (forall s id k s', k = FNeverRestart \/ k = FCrashLimit -> task_failed s None id k = Ok s' -> R s s') ->
  forall l s reason s', lost_fail_running s reason l = Ok s' -> R s s'.
Proof.
  intros R_refl R_trans R_crash R_fail.
  induction l as [|id r IH]; cbn [lost_fail_running]; intros s reason s' H; [inversion H; apply R_refl|].
  destruct (find_task (c_tasks (core_of s)) id) as [t|] eqn:Ef; [|eapply IH; exact H].
  assert (Hfail : forall s0 k, k = FNeverRestart \/ k = FCrashLimit -> R s s0 ->
            (do s1 <- task_failed s0 None id k; lost_fail_running s1 reason r) = Ok s' -> R s s').
  { intros s0 k Hk R0 Hx. apply bind_ok in Hx. destruct Hx as (s1 & Hf & Hx).
    eapply R_trans; [exact R0|]. eapply R_trans; [eapply R_fail; eassumption | eapply IH; exact Hx]. }
  assert (Hlim : (if reason_is_failure reason
                  then let '(t', limit) := increment_crash_counter t in
                       let s1 := st_core s (upd_task (core_of s) t') in
                       if limit then do s2 <- task_failed s1 None id FCrashLimit; lost_fail_running s2 reason r
                       else lost_fail_running s1 reason r
                  else lost_fail_running s reason r) = Ok s' -> R s s').
  { destruct (reason_is_failure reason); [|apply IH].
    unfold increment_crash_counter. cbv zeta. pose proof (R_crash s id t Ef) as Rc.
    destruct (match t_climit t with CNever => true | CMax n => N.leb n _ | CUnl => false end).
    - apply Hfail; [right; reflexivity | exact Rc].
    - intros Hx. eapply R_trans; [exact Rc | eapply IH; exact Hx]. }
  destruct (t_climit t); [apply (Hfail s FNeverRestart); [left; reflexivity | apply R_refl | exact H] | exact (Hlim H) | exact (Hlim H)].
Qed.

(** The lost worker's own part of [Server.on_remove_worker], copied from its body to give it a
    name: [on_remove_worker] unfolds to it, so what relates the two holds by conversion. *)
Definition lost_sets (c0 : core) (w : wid) (wk : sworker) (a_order p_order : list tid) : res (core * list tid * list tid) :=
  match w_assign wk with
  | Sn a p _ =>
      if negb (perm_of_set a_order a && perm_of_set p_order p) then Disabled
      else do c1 <- lost_prefilled c0 p_order; lost_assigned c1 a_order [] []
  | Mn mt root =>
      do t <- get_task (c_tasks c0) mt;
      match t_state t with
      | RunningMN ws =>
          match ws with
          | w0 :: rest =>
              if N.eqb w w0 then
                do c1 <- reset_mn_all c0 rest;
                let t2 := with_inst (with_state t (Waiting 0)) (t_inst t + 1) in
                let c2 := upd_task c1 t2 in
                do (qs, ret) <- add_ready_task (c_queues c2) t2;
                Ok (with_queues c2 qs, [mt], ret)
              else
                Ok (upd_task c0 (with_state t (RunningMN (filter (fun x => negb (N.eqb x w)) ws))), [], [])
          | [] => Panic 186
          end
      | _ => Panic 187
      end
  end.

Lemma on_remove_worker_rel (R : st -> st -> Prop) :
  (forall a b c, R a b -> R b c -> R a c) ->
  (forall s w wk ao po c2 running retracted, find_worker (c_workers (core_of s)) w = Some wk ->
     lost_sets (with_workers (core_of s) (del_worker (c_workers (core_of s)) w)) w wk ao po = Ok (c2, running, retracted) ->
     R s (st_core (with_procs (fst s) (del_proc (s_procs (fst s)) w), snd s) c2)) ->
  (forall l s w s', lost_retracting s w l = Ok s' -> R s s') ->
  (forall s r s', process_retracted s r = Ok s' -> R s s') ->
  (forall s w, R s (broadcast s (DLostWorker w))) ->
  (forall s w running reason s', process_worker_lost s w running reason = Ok s' -> R s s') ->
  (forall l s reason s', lost_fail_running s reason l = Ok s' -> R s s') ->
  (forall s, R s (ask_scheduling s)) ->
  forall s w reason ao po to s', on_remove_worker s w reason ao po to = Ok s' -> R s s'.
Proof.
  intros R_trans R_sets R_retracting R_retracted R_bc R_wl R_fail R_ask s w reason ao po to s' H.
  unfold on_remove_worker in H. destruct (find_worker (c_workers (core_of s)) w) as [wk|] eqn:Ew; [|discriminate].
  apply bind_ok in H. destruct H as ([[c2 running] retracted] & Hr & H).
  destruct (negb (perm_of_set to _)); [discriminate|].
  apply bind_ok in H. destruct H as (s3 & H3 & H). apply bind_ok in H. destruct H as (s4 & H4 & H).
  apply bind_ok in H. destruct H as (s6 & H6 & H). apply bind_ok in H. destruct H as (s7 & H7 & H). inversion H; subst s'.
  eapply R_trans; [exact (R_sets _ _ _ _ _ _ _ _ Ew Hr)|]. eapply R_trans; [exact (R_retracting _ _ _ _ H3)|].
  eapply R_trans; [exact (R_retracted _ _ _ H4)|]. eapply R_trans; [apply (R_bc s4 w)|].
  eapply R_trans; [exact (R_wl _ _ _ _ _ H6)|]. eapply R_trans; [exact (R_fail _ _ _ _ H7) | apply R_ask].
Qed.

Lemma step_lost_split s w reason a p t s' outs :
  step s (OpLost w reason a p t) = Ok (s', outs) -> on_remove_worker (s, []) w reason a p t = Ok (s', outs).
Proof. cbn [step]. destruct (find_proc _ w); [intros H; exact H | discriminate]. Qed.

Lemma step_up_split s w s' outs :
  step s (OpDUp w) = Ok (s', outs) ->
  exists p m rest, find_proc (s_procs s) w = Some p /\ p_up p = m :: rest /\
    let s1 : st := (with_procs s (set_proc (s_procs s) (wp_up p rest)), [OUp w m]) in
    match m with
    | UUpdates us => on_task_update s1 w us = Ok (s', outs)
    | URetractResponse ids => on_retract_response s1 w ids = Ok (s', outs)
    end.
Proof.
  cbn [step]. destruct (find_proc _ w) as [p|]; [|discriminate]. destruct (p_up p) as [|m rest] eqn:Eu; [discriminate|].
  intros H. exists p, m, rest. split; [reflexivity|]. split; [exact Eu|]. destruct m; exact H.
Qed.


Lemma check_termination_core s jid s' : check_termination s jid = Ok s' -> core_of s' = core_of s.
Proof.
  unfold check_termination. intros H. apply bind_ok in H. destruct H as (j & _ & H). apply bind_ok in H. destruct H as (na & _ & H).
  destruct na; [destruct (j_open j)|]; inversion H; reflexivity.
Qed.

Lemma step_core_same s o s' outs : step s o = Ok (s', outs) ->
  match o with
  | OpOpen _ | OpClose _ | OpForget _ | OpPrune | OpDDown _ _ | OpEnd _ _ _ | OpFailNext _ _ | OpTimer => s_core s' = s_core s
  | _ => True
  end.
Proof.
  destruct o; cbn [step]; intros H; try exact I.
  - (* open *) unfold handle_open in H. inversion H; reflexivity.
  - (* close *) unfold handle_close in H.
    destruct (find_job (hq_jobs (s, [])) j) as [jb|]; [|inversion H; reflexivity].
    destruct (j_open jb); [|inversion H; reflexivity].
    apply bind_ok in H. destruct H as (s1 & H1 & H). inversion H; subst.
    exact (check_termination_core _ _ _ H1).
  - (* forget *) unfold handle_forget in H.
    destruct (find_job (hq_jobs (s, [])) j) as [jb|]; [|inversion H; reflexivity].
    apply bind_ok in H. destruct H as (na & _ & H). destruct (negb (j_open jb) && na); inversion H; reflexivity.
  - (* ddown *) destruct (find_proc (s_procs s) w) as [p|]; [|discriminate]. destruct (p_down p) as [|m rest]; [discriminate|].
    apply bind_ok in H. destruct H as ([p' ls] & _ & H). inversion H; reflexivity.
  - (* end *) destruct (find_proc (s_procs s) w) as [p|]; [|discriminate].
    apply bind_ok in H. destruct H as ([p' ls] & _ & H). inversion H; reflexivity.
  - (* failnext *) destruct (find_proc (s_procs s) w) as [p|]; [|discriminate]. inversion H; reflexivity.
  - (* timer *) inversion H; reflexivity.
  - (* prune *) apply bind_ok in H. destruct H as (lj & _ & H). inversion H; reflexivity.
Qed.

(** Both handlers change the job layer and the output, call [get_or_create_rq] for
    each request class and end with [on_new_tasks].  So a transitive relation on states that holds
    between states with the same core and the same worker processes, and holds for these two
    functions, holds for [OpSubmit] and [OpSubmitG]. *)
Section SubmitPass.
Variable R : st -> st -> Prop.
Hypothesis R_trans : forall a b c, R a b -> R b c -> R a c.
Hypothesis R_same : forall s s', core_of s' = core_of s -> s_procs (fst s') = s_procs (fst s) -> R s s'.
Hypothesis R_rq : forall s r, R s (fst (get_or_create_rq s r)).
Hypothesis R_new : forall s ts s', on_new_tasks s ts = Ok s' -> R s s'.

Lemma fold_rqs_pass rqs : forall s l s' l',
  fold_left (fun acc r => let '(s, l) := acc in let '(s', i) := get_or_create_rq s r in (s', l ++ [i])) rqs (s, l) = (s', l') -> R s s'.
Proof.
  induction rqs as [|r rest IH]; cbn [fold_left]; intros s l s' l' H; [inversion H; subst; apply R_same; reflexivity|].
  pose proof (R_rq s r) as R1. destruct (get_or_create_rq s r) as [s1 i]. eapply R_trans; [exact R1 | eapply IH; exact H].
Qed.

Lemma new_tasks_resp_pass s4 j' tasks jid s' :
  (do s6 <- on_new_tasks (hq_set_job s4 j') tasks; submit_ok_resp s6 jid) = Ok s' -> R s4 s'.
Proof.
  intros H. apply bind_ok in H. destruct H as (s6 & H6 & H).
  unfold submit_ok_resp in H. apply bind_ok in H. destruct H as (jx & _ & H). inversion H; subst s'.
  eapply R_trans; [|eapply R_trans; [exact (R_new _ _ _ H6) | apply R_same; reflexivity]]. apply R_same; reflexivity.
Qed.

Lemma handle_submit_array_pass s jobsel ids entries rq prio cl tlim mf s' :
  handle_submit_array s jobsel ids entries rq prio cl tlim mf = Ok s' -> R s s'.
Proof.
  unfold handle_submit_array. intros H. cbv zeta in H.
  match type of H with match ?x with _ => _ end = _ => destruct x end; [inversion H; subst; apply R_same; reflexivity|].
  apply bind_ok in H. destruct H as ([o s1] & Hr & H).
  assert (E1 : R s s1).
  { apply R_same; (destruct jobsel as [j0|]; [destruct (find_job (hq_jobs s) j0) as [j|]; [destruct (negb (j_open j))|]|]); inversion Hr; subst; reflexivity. }
  eapply R_trans; [exact E1|]. clear Hr E1.
  destruct o as [[[jid is_new] ids']|].
  - match type of H with (let '(_, _) := get_or_create_rq ?s3 _ in _) = _ =>
      pose proof (R_rq s3 rq) as R4; destruct (get_or_create_rq s3 rq) as [s4 rqi] end.
    apply bind_ok in H. destruct H as (j & _ & H). apply bind_ok in H. destruct H as (j' & _ & H).
    eapply R_trans; [|eapply R_trans; [exact R4 | eapply new_tasks_resp_pass; exact H]].
    apply R_same; destruct is_new; reflexivity.
  - destruct jobsel; [destruct (find_job _ _)|]; inversion H; subst; apply R_same; reflexivity.
Qed.

Lemma handle_submit_graph_pass s jobsel rqs ts mf s' : handle_submit_graph s jobsel rqs ts mf = Ok s' -> R s s'.
Proof.
  unfold handle_submit_graph. intros H. cbv zeta in H.
  apply bind_ok in H. destruct H as (v1 & _ & H).
  match type of H with match ?x with _ => _ end = _ => destruct x end; [inversion H; subst; apply R_same; reflexivity|].
  apply bind_ok in H. destruct H as ([o s1] & Hr & H).
  assert (E1 : R s s1).
  { apply R_same; (destruct jobsel as [j0|]; [destruct (find_job (hq_jobs s) j0) as [j|]; [destruct (negb (j_open j))|]|]); inversion Hr; subst; reflexivity. }
  eapply R_trans; [exact E1|]. clear Hr E1.
  destruct o as [[jid is_new]|]; [|inversion H; subst; apply R_same; reflexivity].
  match type of H with (let '(_, _) := fold_left ?f rqs (?s3, []) in _) = _ =>
    destruct (fold_left f rqs (s3, [])) as [s4 rqis] eqn:Eg; pose proof (fold_rqs_pass _ _ _ _ _ Eg) as R4 end.
  apply bind_ok in H. destruct H as (j & _ & H). apply bind_ok in H. destruct H as (j' & _ & H).
  apply bind_ok in H. destruct H as (tasks & _ & H).
  eapply R_trans; [|eapply R_trans; [exact R4 | eapply new_tasks_resp_pass; exact H]].
  apply R_same; destruct is_new; reflexivity.
Qed.

Lemma step_submit_pass s o s' outs : step s o = Ok (s', outs) ->
  match o with OpSubmit _ _ _ _ _ _ _ _ | OpSubmitG _ _ _ _ => R (s, []) (s', outs) | _ => True end.
Proof.
  destruct o; cbn [step]; intros H; try exact I.
  - destruct (bad_submit_lengths _ _); [inversion H; subst; apply R_same; reflexivity|].
    exact (handle_submit_array_pass _ _ _ _ _ _ _ _ _ _ H).
  - destruct (bad_graph_rq _ _); [inversion H; subst; apply R_same; reflexivity|].
    destruct (dead_dep _ _ _); [inversion H; subst; apply R_same; reflexivity|].
    exact (handle_submit_graph_pass _ _ _ _ _ _ H).
Qed.
End SubmitPass.

(** A relation that only looks at the server core: the operations that leave the core alone
    ([step_core_same]) and the refused submits need no hypothesis. *)
Lemma step_walk_core (R : st -> st -> Prop) (ok : op -> Prop) :
  (forall a b, core_of b = core_of a -> R a b) ->
  (forall s rs g s', ok (OpConnect rs g) -> on_new_worker (s, []) rs g = Ok s' -> R (s, []) s') ->
  (forall s w reason a p t s', ok (OpLost w reason a p t) -> on_remove_worker (s, []) w reason a p t = Ok s' -> R (s, []) s') ->
  (forall s job ids entries rq prio cl tlim mf s', ok (OpSubmit job ids entries rq prio cl tlim mf) ->
     handle_submit_array (s, []) job ids entries rq prio cl tlim mf = Ok s' -> R (s, []) s') ->
  (forall s job rqs ts mf s', ok (OpSubmitG job rqs ts mf) -> handle_submit_graph (s, []) job rqs ts mf = Ok s' -> R (s, []) s') ->
  (forall s j s', ok (OpCancel j) -> handle_cancel (s, []) j = Ok s' -> R (s, []) s') ->
  (forall s w p m rest s', ok (OpDUp w) -> find_proc (s_procs s) w = Some p -> p_up p = m :: rest ->
     match m with
     | UUpdates us => on_task_update (with_procs s (set_proc (s_procs s) (wp_up p rest)), [OUp w m]) w us
     | URetractResponse ids => on_retract_response (with_procs s (set_proc (s_procs s) (wp_up p rest)), [OUp w m]) w ids
     end = Ok s' -> R (s, []) s') ->
  (forall s sol s', ok (OpSched sol) -> c_flag (s_core s) = true -> run_scheduling (s, []) sol = Ok s' -> R (s, []) s') ->
  forall s o s' outs, ok o -> step s o = Ok (s', outs) -> R (s, []) (s', outs).
Proof.
  intros R_same R_connect R_lost R_submit R_submitg R_cancel R_up R_sched s o s' outs Ho H.
  pose proof (step_core_same _ _ _ _ H) as Hc.
  destruct o; try exact (R_same (s, []) (s', outs) Hc).
  - exact (R_connect _ _ _ _ Ho H).
  - exact (R_lost _ _ _ _ _ _ _ Ho (step_lost_split _ _ _ _ _ _ _ _ H)).
  - cbn [step] in H. destruct (bad_submit_lengths _ _); [inversion H; subst; apply R_same; reflexivity | exact (R_submit _ _ _ _ _ _ _ _ _ _ Ho H)].
  - cbn [step] in H. destruct (bad_graph_rq _ _); [inversion H; subst; apply R_same; reflexivity|].
    destruct (dead_dep _ _ _); [inversion H; subst; apply R_same; reflexivity | exact (R_submitg _ _ _ _ _ _ Ho H)].
  - exact (R_cancel _ _ _ Ho H).
  - destruct (step_up_split _ _ _ _ H) as (p & m & rest & Hp & Eu & Hm). apply (R_up s w p m rest _ Ho Hp Eu). destruct m; exact Hm.
  - cbn [step] in H. destruct (c_flag (s_core s)) eqn:Ef; [exact (R_sched _ _ _ Ho Ef H) | discriminate].
Qed.

(** A family that knows something ([Q]) of every update of the message being processed. *)
Section UpdatesOf.
Variable R : st -> st -> Prop.
Variable Q : wupdate -> Prop.
Variable w : wid.
Hypothesis R_refl : forall s, R s s.
Hypothesis R_trans : forall a b c, R a b -> R b c -> R a c.
Hypothesis R_one : forall s u s' n, Q u -> apply_one s w u = Ok (s', n) -> R s s'.

Lemma apply_updates_rel_of us : Forall Q us -> forall s need s' need', apply_updates s w us need = Ok (s', need') -> R s s'.
Proof.
  intros HQ s need s' need' H.
  refine (apply_updates_rel_inv R (fun _ w' l => w' = w /\ Forall Q l) R_refl R_trans _ us s w need s' need' (conj eq_refl HQ) H).
  intros x w0 u r x' n [-> HF] Hu. inversion HF; subst. split; [eapply R_one; eassumption | split; [reflexivity | assumption]].
Qed.

Lemma on_task_update_rel_of s us s' :
  (forall x, R x (ask_scheduling x)) -> Forall Q us -> on_task_update s w us = Ok s' -> R s s'.
Proof.
  intros Ra HQ H. unfold on_task_update in H. apply bind_ok in H. destruct H as ([s1 need] & Hu & H).
  pose proof (apply_updates_rel_of _ HQ _ _ _ _ Hu) as T1.
  destruct (need && _); inversion H; subst; [eapply R_trans; [exact T1 | apply Ra] | exact T1].
Qed.
End UpdatesOf.

(** * Histories: [run] over a concatenation *)
Lemma run_app a : forall s b s' outs, run s (a ++ b) = Ok (s', outs) ->
  exists s1 o1 o2, run s a = Ok (s1, o1) /\ run s1 b = Ok (s', o2) /\ outs = o1 ++ o2.
Proof.
  induction a as [|o r IH]; cbn [app run]; intros s b s' outs H.
  - exists s, [], outs. split; [reflexivity | split; [exact H | reflexivity]].
  - apply bind_ok in H. destruct H as ([s1 o1] & H1 & H). apply bind_ok in H. destruct H as ([s2 o2] & H2 & H). inversion H; subst.
    destruct (IH _ _ _ _ H2) as (sa & oa & ob & Ha & Hb & ->).
    exists sa, (o1 ++ oa), ob. rewrite H1. cbn [bind]. rewrite Ha. cbn [bind]. split; [reflexivity | split; [exact Hb | apply app_assoc]].
Qed.

Lemma run_snoc pre : forall s o s1 o1 s2 o2,
  run s pre = Ok (s1, o1) -> step s1 o = Ok (s2, o2) -> run s (pre ++ [o]) = Ok (s2, o1 ++ o2).
Proof.
  induction pre as [|p r IH]; cbn [run app]; intros s o s1 o1 s2 o2 H1 H2.
  - inversion H1; subst. rewrite H2. cbn. rewrite app_nil_r. reflexivity.
  - apply bind_ok in H1. destruct H1 as ([sa oa] & Ha & H1). apply bind_ok in H1. destruct H1 as ([sb ob] & Hb & H1).
    inversion H1; subst. rewrite Ha. cbn [bind]. rewrite (IH _ _ _ _ _ _ Hb H2). cbn. rewrite app_assoc. reflexivity.
Qed.
