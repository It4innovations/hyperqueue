(** C05, accounting conjunct, part 5: one step of the system, every history.

    [fits_step s o]: no subtraction from a free counter saturates in step [o] from state [s]:
      - [OpDUp w]: every running / running-prefilled update of the processed message whose task is
        Prefilled or Retracting at the server finds the request within the worker's free counter
        (the contrary is the known finding F23);
      - [OpSched sol]: simulating the round, every [insert_sn_task] of [map_one] finds the request
        within the worker's free counter (the contrary is a solver answer that does not fit; the
        real solver's row system excludes it, Sched [C05_feasible_no_overbook]);
      - true for every other operation.
    [ACC c]: at EVERY index, for every single-node worker, free + sum of the requests of the assigned
    tasks = total (and the free counter has the length of the total).

    A submit is the only step that adds tasks and request classes; it touches no assigned set and no
    free counter (only prefilled sets, through the retraction of lower-priority prefills), every task
    that exists keeps its request class and the request table is only appended to.  Relation
    [SUB c c'] says exactly that. *)
From HQ Require Import Base.Prelude Cluster.Types Cluster.Core Cluster.Reactor Cluster.Worker Cluster.Server Cluster.Sys Cluster.Monitors Cluster.ProofsJob Cluster.ProofsStep Cluster.BijBase Cluster.BijCore Cluster.BijHq Cluster.BijSt Cluster.BijFinal Cluster.RejHyp Cluster.InvWBase Cluster.InvWCore Cluster.InvWX1 Cluster.InvWFinal Cluster.InvQBase Cluster.InvQInv Cluster.InvQStep Cluster.InvAll Cluster.InvBundle Cluster.InvDStep Cluster.NoPanicU0 Cluster.NoPanicU20 Cluster.AcctBase Cluster.AcctReact Cluster.AcctReact2 Cluster.AcctServer.
From HQ Require Import Cluster.StepShape.
From HQ Require Import Cluster.ModelFacts.
From Coq Require Import ZArith Lia Sorting.Sorted.
Local Open Scope N_scope.

Arguments N.add : simpl never.
Arguments N.sub : simpl never.

Definition fits_step (s : sys) (o : op) : bool :=
  match o with
  | OpDUp w =>
      match find_proc (s_procs s) w with
      | Some p =>
          match p_up p with
          | UUpdates us :: rest =>
              updates_fit (with_procs s (set_proc (s_procs s) (wp_up p rest)), [OUp w (UUpdates us)]) w us
          | _ => true
          end
      | None => true
      end
  | OpSched sol => sched_fits (s_core s) sol
  | _ => true
  end.

Fixpoint fits_run (s : sys) (ops : list op) : bool :=
  match ops with
  | [] => true
  | o :: r =>
      fits_step s o
      && match step s o with
         | Ok (s1, _) => fits_run s1 r
         | _ => true
         end
  end.

Lemma fits_run_snoc pre : forall s o s1 o1,
  run s pre = Ok (s1, o1) -> fits_run s (pre ++ [o]) = true -> fits_run s pre = true /\ fits_step s1 o = true.
Proof.
  induction pre as [|p r IH]; cbn [run fits_run app]; intros s o s1 o1 H1 Hf.
  - inversion H1; subst. apply andb_true_iff in Hf. split; [reflexivity | apply Hf].
  - apply bind_ok in H1 as ([sa oa] & Ha & H1). apply bind_ok in H1 as ([sb ob] & Hb & H1).
    inversion H1; subst. rewrite Ha in *. apply andb_true_iff in Hf. destruct Hf as [Hf1 Hf2].
    destruct (IH _ _ _ _ Hb Hf2) as [I1 I2]. rewrite Hf1, I1. auto.
Qed.

Definition ACC (c : core) : Prop := ACCW (request_of c) (c_workers c).

Lemma present_of_WI c : WI c -> forall wk a p f x, In wk (c_workers c) -> w_assign wk = Sn a p f -> In x a ->
  exists t, find_task (c_tasks c) x = Some t.
Proof.
  intros HW wk a p f x Hin Ea Hx. pose proof (WI_worker_sets_ok c HW) as H. rewrite forallb_forall in H.
  specialize (H wk Hin). unfold worker_sets_ok in H. rewrite Ea in H. apply andb_true_iff in H. destruct H as [H _].
  rewrite forallb_forall in H. specialize (H x Hx). destruct (find_task (c_tasks c) x) as [t|]; [eauto | discriminate].
Qed.

Lemma ACC_to_AI c : StronglySorted tlt (map t_id (c_tasks c)) -> ACC c -> AI (request_of c) (c_rqs c) c.
Proof.
  intros Hs HA. split; [exact HA|]. split; [reflexivity|]. intros t Hin.
  rewrite (request_of_lk c (t_id t) t); [reflexivity | apply in_find_task; assumption].
Qed.

Lemma AI_to_ACC rqf rqs c : AI rqf rqs c -> WI c -> ACC c.
Proof.
  intros HA HW wk Hin. apply (accw_ext rqf); [|apply (AI_workers _ _ _ HA); exact Hin].
  intros a p f x Ea Hx. destruct (present_of_WI c HW wk a p f x Hin Ea Hx) as (t & Hf).
  destruct (AI_find _ _ _ _ _ HA Hf) as [E1 E2]. rewrite (request_of_lk _ _ _ Hf), (AI_rqs _ _ _ HA), E1, E2. reflexivity.
Qed.

Definition same_af (wk wk' : sworker) : Prop :=
  w_res wk' = w_res wk /\
  match w_assign wk, w_assign wk' with
  | Sn a _ f, Sn a' _ f' => a' = a /\ f' = f
  | Mn _ _, Mn _ _ => True
  | _, _ => False
  end.

Section Sub.
(** [P]: what is known of the request classes a submit may add. *)
Variable P : rqdef -> Prop.

Definition WSAME (c c' : core) : Prop := forall wk', In wk' (c_workers c') -> exists wk, In wk (c_workers c) /\ same_af wk wk'.

Definition TSTAB (c c' : core) : Prop :=
  (exists l, c_rqs c' = c_rqs c ++ l /\ Forall P l) /\
  forall id t, find_task (c_tasks c) id = Some t -> exists t', find_task (c_tasks c') id = Some t' /\ t_rq t' = t_rq t.

Definition SUB (c c' : core) : Prop := WSAME c c' /\ TSTAB c c'.

Lemma same_af_refl wk : same_af wk wk.
Proof. split; [reflexivity|]. destruct (w_assign wk); auto. Qed.

Lemma same_af_trans a b c : same_af a b -> same_af b c -> same_af a c.
Proof.
  intros [R1 A1] [R2 A2]. split; [congruence|].
  destruct (w_assign a), (w_assign b), (w_assign c); try contradiction; auto.
  destruct A1 as [-> ->], A2 as [-> ->]. auto.
Qed.

Lemma WSAME_same c c' : c_workers c' = c_workers c -> WSAME c c'.
Proof. intros E wk H. rewrite E in H. exists wk. split; [exact H | apply same_af_refl]. Qed.

Lemma TSTAB_app c c' l : c_tasks c' = c_tasks c -> c_rqs c' = c_rqs c ++ l -> Forall P l -> TSTAB c c'.
Proof. intros Et Er Fl. split; [exists l; split; assumption | intros id t H; exists t; rewrite Et; auto]. Qed.

Lemma TSTAB_same c c' : c_tasks c' = c_tasks c -> c_rqs c' = c_rqs c -> TSTAB c c'.
Proof. intros Et Er. apply (TSTAB_app c c' []); [exact Et | rewrite app_nil_r; exact Er | constructor]. Qed.

Lemma SUB_frame c c' : c_workers c' = c_workers c -> c_tasks c' = c_tasks c -> c_rqs c' = c_rqs c -> SUB c c'.
Proof. intros Ew Et Er. split; [apply WSAME_same | apply TSTAB_same]; assumption. Qed.

Lemma SUB_refl c : SUB c c.
Proof. apply SUB_frame; reflexivity. Qed.

Lemma SUB_trans c1 c2 c3 : SUB c1 c2 -> SUB c2 c3 -> SUB c1 c3.
Proof.
  intros [W1 [[l1 [R1 F1]] T1]] [W2 [[l2 [R2 F2]] T2]]. split; [|split].
  - intros wk3 H3. destruct (W2 _ H3) as (wk2 & H2 & S2). destruct (W1 _ H2) as (wk1 & H1 & S1).
    exists wk1. split; [exact H1 | eapply same_af_trans; eassumption].
  - exists (l1 ++ l2). split; [rewrite R2, R1, app_assoc; reflexivity | apply Forall_app; split; assumption].
  - intros id t H. destruct (T1 _ _ H) as (t2 & H2 & E2). destruct (T2 _ _ H2) as (t3 & H3 & E3). exists t3. split; [exact H3 | congruence].
Qed.

Lemma SUB_upd_task c x :
  (forall t0, find_task (c_tasks c) (t_id x) = Some t0 -> t_rq x = t_rq t0) -> SUB c (upd_task c x).
Proof.
  intros Hx. split; [apply WSAME_same; reflexivity|]. split; [apply (TSTAB_same c c); reflexivity|].
  intros id t Hf. cbn [c_tasks upd_task with_tasks]. rewrite find_set_task.
  destruct (tid_eqb id (t_id x)) eqn:E; [|exists t; auto].
  apply tid_eqb_eq in E. subst id. exists x. split; [reflexivity | apply Hx; exact Hf].
Qed.

Lemma SUB_with_state c id t st : find_task (c_tasks c) id = Some t -> SUB c (upd_task c (with_state t st)).
Proof.
  intros Hf. apply SUB_upd_task. intros t0 H0. cbn [t_id t_rq with_state] in *.
  rewrite (proj2 (find_task_some _ _ _ Hf)), Hf in H0. injection H0 as <-. reflexivity.
Qed.

Lemma SUB_upd_worker c wk wk' : In wk (c_workers c) -> same_af wk wk' -> SUB c (upd_worker c wk').
Proof.
  intros Hin Hs. split; [|apply TSTAB_same; reflexivity].
  intros y Hy. destruct (set_worker_in _ _ _ Hy) as [->|Hy']; [exists wk; auto|].
  exists y. split; [exact Hy' | apply same_af_refl].
Qed.

Lemma remove_prefill_same_af wk id wk' : remove_prefill_task wk id = Ok wk' -> same_af wk wk'.
Proof.
  unfold remove_prefill_task. destruct (w_assign wk) as [a p f|] eqn:Ea; [|discriminate].
  destruct (tid_mem id p); [|discriminate]. intros H. injection H as <-. split; [reflexivity|]. rewrite Ea. cbn. auto.
Qed.

Lemma retract_states_SUB ids : forall c acc c' acc', retract_states c ids acc = Ok (c', acc') -> SUB c c'.
Proof.
  induction ids as [|id r IH]; cbn [retract_states]; intros c acc c' acc' H; [injection H as <- _; apply SUB_refl|].
  apply bind_ok in H as (t & Ht & H). apply get_task_find in Ht. destruct (t_state t) eqn:Est; try discriminate.
  apply bind_ok in H as (wk & Hw & H). apply bind_ok in H as (wk' & Hw' & H).
  eapply SUB_trans; [eapply SUB_trans|eapply IH; exact H].
  - eapply SUB_with_state. exact Ht.
  - eapply SUB_upd_worker; [|eapply remove_prefill_same_af; exact Hw'].
    apply get_worker_find in Hw. apply (find_worker_some _ _ _ Hw).
Qed.

Lemma process_retracted_SUB s r s' : process_retracted s r = Ok s' -> SUB (core_of s) (core_of s').
Proof.
  unfold process_retracted. intros H. destruct r; [injection H as <-; apply SUB_refl|].
  apply bind_ok in H as ([c' groups] & Hx & H). rewrite (send_all_core _ _ _ H).
  eapply retract_states_SUB; exact Hx.
Qed.

Lemma register_deps_SUB deps : forall c id kept count c' kept' count',
  register_deps c id deps kept count = (c', kept', count') ->
  SUB c c' /\ (find_task (c_tasks c) id = None -> find_task (c_tasks c') id = None).
Proof.
  induction deps as [|d r IH]; cbn [register_deps]; intros c id kept count c' kept' count' H; [injection H as <- _ _; split; [apply SUB_refl | auto]|].
  destruct (find_task (c_tasks c) d) as [dep|] eqn:Ed; [|eapply IH; exact H].
  destruct (IH _ _ _ _ _ _ _ H) as [S1 N1]. destruct (find_task_some _ _ _ Ed) as [_ Hid]. split.
  - eapply SUB_trans; [|exact S1]. apply SUB_upd_task. intros t0 H0. cbn [t_id t_rq with_consumers] in *. rewrite Hid, Ed in H0. injection H0 as <-. reflexivity.
  - intros Hn. apply N1. cbn [c_tasks upd_task with_tasks]. rewrite find_set_task. cbn [t_id with_consumers]. rewrite Hid.
    destruct (tid_eqb id d) eqn:E; [apply tid_eqb_eq in E; subst d; congruence | exact Hn].
Qed.

Lemma add_new_tasks_SUB ts : forall c ret c' ret', add_new_tasks c ts ret = Ok (c', ret') -> SUB c c'.
Proof.
  induction ts as [|t r IH]; cbn [add_new_tasks]; intros c ret c' ret' H; [injection H as <- _; apply SUB_refl|].
  destruct (register_deps c (t_id t) (t_deps t) [] 0) as [[c1 kept] count] eqn:Erd.
  destruct (register_deps_SUB _ _ _ _ _ _ _ _ Erd) as [S1 _].
  apply bind_ok in H as ([c2 rt] & Hx & H).
  assert (S2 : SUB c1 c2).
  { destruct (N.eqb count 0); [inv_binds Hx|]; injection Hx as <- _; apply SUB_frame; reflexivity. }
  destruct (find_task (c_tasks c2) (t_id t)) eqn:Ef; [discriminate|].
  eapply SUB_trans; [exact S1|]. eapply SUB_trans; [exact S2|]. eapply SUB_trans; [|eapply IH; exact H].
  apply SUB_upd_task. intros t0 H0. cbn [t_id with_state with_deps] in H0. congruence.
Qed.

Lemma on_new_tasks_SUB s ts s' : on_new_tasks s ts = Ok s' -> SUB (core_of s) (core_of s').
Proof.
  unfold on_new_tasks. intros H. destruct ts; [injection H as <-; apply SUB_refl|].
  apply bind_ok in H as ([c' retracted] & Hx & H). apply bind_ok in H as (s1 & Hs1 & H). injection H as <-.
  eapply SUB_trans; [eapply add_new_tasks_SUB; exact Hx|]. exact (process_retracted_SUB _ _ _ Hs1).
Qed.

Lemma get_or_create_rq_SUB s r : P r -> SUB (core_of s) (core_of (fst (get_or_create_rq s r))).
Proof.
  intros Hr. unfold get_or_create_rq. destruct (rq_index _ r 0); [apply SUB_refl|]. cbn [fst].
  split; [apply WSAME_same; reflexivity | apply (TSTAB_app _ _ [r]); [reflexivity | reflexivity | constructor; [exact Hr | constructor]]].
Qed.

Lemma submit_tail_SUB s4 jid ids tasks s' :
  (do j <- hq_get_job s4 jid 222;
   do j' <- attach_ids j ids;
   do s6 <- on_new_tasks (hq_set_job s4 j') tasks;
   submit_ok_resp s6 jid) = Ok s' -> SUB (core_of s4) (core_of s').
Proof.
  intros H. apply bind_ok in H as (j & Hj & H). apply bind_ok in H as (j' & Hj' & H). apply bind_ok in H as (s6 & H6 & H).
  pose proof (on_new_tasks_SUB (hq_set_job s4 j') _ _ H6) as S6.
  unfold submit_ok_resp in H. apply bind_ok in H as (jx & Hjx & H). inversion H; subst. exact S6.
Qed.

Lemma handle_submit_array_SUB s jobsel ids entries rq prio cl tlim mf s' :
  P rq -> handle_submit_array s jobsel ids entries rq prio cl tlim mf = Ok s' -> SUB (core_of s) (core_of s').
Proof.
  intros HP H. unfold handle_submit_array in H.
  match type of H with (match ?x with Some _ => _ | None => _ end) = _ => destruct x end; [inversion H; subst; apply SUB_refl|].
  apply bind_ok in H as ([acc s1] & Hr & H).
  assert (E1 : core_of s1 = core_of s).
  { destruct jobsel as [j0|]; [destruct (find_job (hq_jobs s) j0) as [j|]; [destruct (negb (j_open j))|]|];
      injection Hr as _ <-; reflexivity. }
  destruct acc as [[[jid is_new] ids']|].
  - cbv zeta in H.
    match type of H with context [get_or_create_rq ?sx rq] => set (s3 := sx) in *; destruct (get_or_create_rq s3 rq) as [s4 rqi] eqn:Erq end.
    assert (E3 : core_of s3 = core_of s) by (rewrite <- E1; subst s3; destruct is_new; reflexivity).
    pose proof (get_or_create_rq_SUB s3 rq HP) as S4. rewrite Erq, E3 in S4. cbn [fst] in S4.
    eapply SUB_trans; [exact S4|]. eapply (submit_tail_SUB s4 jid ids'). exact H.
  - assert (E2 : core_of s' = core_of s1).
    { destruct jobsel; [match type of H with (match ?x with Some _ => _ | None => _ end) = _ => destruct x end|];
        inversion H; subst; reflexivity. }
    rewrite E2, E1. apply SUB_refl.
Qed.

Lemma fold_rqs_SUB rqs : forall s l s4 rqis,
  Forall P rqs ->
  fold_left (fun acc r => let '(s, l) := acc in let '(s', i) := get_or_create_rq s r in (s', l ++ [i])) rqs (s, l) = (s4, rqis) ->
  SUB (core_of s) (core_of s4).
Proof.
  induction rqs as [|r rest IH]; cbn [fold_left]; intros s l s4 rqis HP H; [inversion H; subst; apply SUB_refl|].
  destruct (get_or_create_rq s r) as [s1 i] eqn:E. eapply SUB_trans; [|eapply IH; [exact (Forall_inv_tail HP) | exact H]].
  pose proof (get_or_create_rq_SUB s r (Forall_inv HP)) as S1. rewrite E in S1. exact S1.
Qed.

Lemma handle_submit_graph_SUB s jobsel rqs ts mf s' :
  Forall P rqs -> handle_submit_graph s jobsel rqs ts mf = Ok s' -> SUB (core_of s) (core_of s').
Proof.
  intros HP H. unfold handle_submit_graph in H.
  apply bind_ok in H as (v1 & _ & H).
  match type of H with (match ?x with Some _ => _ | None => _ end) = _ => destruct x end; [inversion H; subst; apply SUB_refl|].
  apply bind_ok in H as ([acc s1] & Hr & H).
  assert (E1 : core_of s1 = core_of s).
  { destruct jobsel as [j0|]; [destruct (find_job (hq_jobs s) j0) as [j|]; [destruct (negb (j_open j))|]|];
      injection Hr as _ <-; reflexivity. }
  destruct acc as [[jid is_new]|].
  - cbv zeta in H.
    match type of H with context [fold_left ?f rqs (?sx, [])] => set (s3 := sx) in *; destruct (fold_left f rqs (s3, [])) as [s4 rqis] eqn:Erq end.
    assert (E3 : core_of s3 = core_of s) by (rewrite <- E1; subst s3; destruct is_new; reflexivity).
    pose proof (fold_rqs_SUB _ _ _ _ _ HP Erq) as S4. rewrite E3 in S4.
    apply bind_ok in H as (j & Hj & H). apply bind_ok in H as (j' & Ha & H).
    apply bind_ok in H as (tasks & Hg & H).
    eapply SUB_trans; [exact S4|]. eapply (submit_tail_SUB s4 jid (map gt_id ts) tasks).
    rewrite Hj. cbn [bind]. rewrite Ha. cbn [bind]. exact H.
  - inversion H; subst. rewrite E1. apply SUB_refl.
Qed.

(** What a submit does to the accounting: nothing, provided the assigned tasks exist and name
    request classes of the table (both are consequences of the proved invariants). *)
Lemma lk_app rqs l n : (N.to_nat n < length rqs)%nat -> lk (rqs ++ l) n = lk rqs n.
Proof. intros H. unfold lk. rewrite nth_error_app1 by exact H. reflexivity. Qed.

Lemma SUB_ACC c c' :
  SUB c c' ->
  (forall wk a p f x, In wk (c_workers c) -> w_assign wk = Sn a p f -> In x a ->
     exists t, find_task (c_tasks c) x = Some t /\ (N.to_nat (t_rq t) < length (c_rqs c))%nat) ->
  ACCW (request_of c) (c_workers c) -> ACCW (request_of c') (c_workers c').
Proof.
  intros [W [[l [R _]] T]] HP A wk' Hin'. destruct (W _ Hin') as (wk & Hin & [Er Ea]).
  specialize (A wk Hin). unfold accw in *. specialize (HP wk).
  destruct (w_assign wk) as [a p f|] eqn:E1, (w_assign wk') as [a' p' f'|] eqn:E2; try contradiction; [|exact I].
  destruct Ea as [-> ->]. rewrite Er. destruct A as [L A]. split; [exact L|].
  intros i. rewrite <- (A i). f_equal. apply tot_ext. intros x Hx.
  destruct (HP a p f x Hin eq_refl Hx) as (t & Hf & Hlt). destruct (T _ _ Hf) as (t' & Hf' & Erq).
  rewrite (request_of_lk _ _ _ Hf'), (request_of_lk _ _ _ Hf), R, Erq. apply lk_app. exact Hlt.
Qed.

Lemma SUB_rqs c c' : SUB c c' -> Forall P (c_rqs c) -> Forall P (c_rqs c').
Proof. intros [_ [[l [R F]] _]] H. rewrite R. apply Forall_app. split; assumption. Qed.
End Sub.

(** [P] is any property of request classes that the operation guarantees of the classes it
    may add ([op_adds P o]); it then holds of the whole table. *)
Definition op_adds (P : rqdef -> Prop) (o : op) : Prop :=
  match o with
  | OpSubmit _ _ _ rq _ _ _ _ => P rq
  | OpSubmitG _ rqs _ _ => Forall P rqs
  | _ => True
  end.

Lemma step_ACC P s o s' outs :
  INV s -> WI (s_core s') -> ACC (s_core s) -> fits_step s o = true -> op_adds P o -> step s o = Ok (s', outs) ->
  ACC (s_core s') /\ (Forall P (c_rqs (s_core s)) -> Forall P (c_rqs (s_core s'))).
Proof.
  intros HI HW' HA HF HP H.
  pose proof (qv_ts _ _ _ _ _ _ (inv_q _ HI)) as Hs.
  pose proof (ACC_to_AI _ Hs HA) as A0.
  set (rqf := request_of (s_core s)) in *. set (rqs := c_rqs (s_core s)) in *.
  assert (Hend : forall s1 : st, AIS rqf rqs s1 -> core_of s1 = s_core s' ->
            ACC (s_core s') /\ (Forall P rqs -> Forall P (c_rqs (s_core s')))).
  { intros s1 A1 E1. unfold AIS in A1. rewrite E1 in A1. split; [eapply AI_to_ACC; eassumption|]. rewrite (AI_rqs _ _ _ A1). auto. }
  assert (Hsame : forall s1 : st, Ok s1 = Ok (s', outs) -> core_of s1 = s_core s ->
            ACC (s_core s') /\ (Forall P rqs -> Forall P (c_rqs (s_core s')))).
  { intros s1 E C. injection E as ->. apply (Hend (s, [])); [exact A0 | symmetry; exact C]. }
  assert (Hsub : SUB P (s_core s) (s_core s') -> ACC (s_core s') /\ (Forall P rqs -> Forall P (c_rqs (s_core s')))).
  { intros S. split; [|apply (SUB_rqs P _ _ S)]. eapply (SUB_ACC P); [exact S | | exact HA].
    intros wk a p f x Hin Ea Hx. destruct (present_of_WI _ (inv_w _ HI) wk a p f x Hin Ea Hx) as (t & Hf). exists t. split; [exact Hf|].
    rewrite <- (qv_len _ _ _ _ _ _ (inv_q _ HI)). eapply (qv_rq _ _ _ _ _ _ (inv_q _ HI)). exact Hf. }
  destruct o; cbn [step] in H; cbn [fits_step op_adds] in HF, HP.
  - apply (Hend (s', outs)); [|reflexivity]. eapply (on_new_worker_AI rqf rqs (s, [])); [exact A0 | exact H].
  - destruct (find_proc _ w); [|discriminate]. apply (Hend (s', outs)); [|reflexivity]. eapply (on_remove_worker_AI rqf rqs (s, [])); [exact A0 | exact H].
  - destruct (bad_submit_lengths _ _); [exact (Hsame _ H eq_refl)|]. apply Hsub. exact (handle_submit_array_SUB P (s, []) _ _ _ _ _ _ _ _ (s', outs) HP H).
  - destruct (bad_graph_rq _ _); [exact (Hsame _ H eq_refl)|]. destruct (dead_dep _ _ _); [exact (Hsame _ H eq_refl)|]. apply Hsub. exact (handle_submit_graph_SUB P (s, []) _ _ _ _ (s', outs) HP H).
  - exact (Hsame _ H eq_refl).
  - unfold handle_close in H. cbn in H. destruct (find_job _ j) as [jb|]; [|exact (Hsame _ H eq_refl)].
    destruct (j_open jb); [|exact (Hsame _ H eq_refl)].
    apply bind_ok in H as (s1 & H1 & H). exact (Hsame _ H (proj1 (check_termination_jt _ _ _ H1))).
  - unfold handle_cancel in H. cbn in H. destruct (find_job _ j) as [jb|]; [|exact (Hsame _ H eq_refl)].
    destruct (non_finished_task_ids jb) as [|i0 ir] eqn:Eids; [exact (Hsame _ H eq_refl)|].
    apply bind_ok in H as (s1 & H1 & H). apply bind_ok in H as (al & _ & H).
    apply bind_ok in H as (s2 & H2 & H). inversion H; subst; clear H.
    destruct (set_cancel_state_active _ _ _ _ H2) as [C2 _]. unfold core_same in C2.
    apply (Hend s1); [|symmetry; exact C2]. eapply (on_cancel_tasks_AI rqf rqs (s, [])); [exact A0 | exact H1].
  - unfold handle_forget in H. cbn in H. destruct (find_job _ j) as [jb|]; [|exact (Hsame _ H eq_refl)].
    apply bind_ok in H as (na & _ & H). destruct (negb (j_open jb) && na); exact (Hsame _ H eq_refl).
  - destruct (find_proc _ w) as [p|]; [|discriminate]. destruct (p_down p); [discriminate|].
    inv_binds H. exact (Hsame _ H eq_refl).
  - destruct (find_proc _ w) as [p|]; [|discriminate]. destruct (p_up p) as [|m rest]; [discriminate|].
    destruct m.
    + apply (Hend (s', outs)); [|reflexivity]. eapply on_task_update_AI; [|exact HF | exact H]. exact A0.
    + apply (Hend (s', outs)); [|reflexivity]. eapply on_retract_response_AI; [|exact H]. exact A0.
  - destruct (c_flag (s_core s)); [|discriminate]. apply (Hend (s', outs)); [|reflexivity].
    eapply (run_scheduling_AI rqf rqs (s, [])); [exact A0 | exact (inv_q _ HI) | exact HF | exact H].
  - destruct (find_proc _ w) as [p|]; [|discriminate]. inv_binds H. exact (Hsame _ H eq_refl).
  - destruct (find_proc _ w) as [p|]; [|discriminate]. exact (Hsame _ H eq_refl).
  - exact (Hsame _ H eq_refl).
  - inv_binds H. exact (Hsame _ H eq_refl).
Qed.

Theorem accounting_exact_pointwise P ops : forall r m s outs,
  Forall op_wf ops -> Forall (op_adds P) ops -> ops_ok (init_sys r m) ops = true -> fits_run (init_sys r m) ops = true ->
  run (init_sys r m) ops = Ok (s, outs) ->
  ACC (s_core s) /\ Forall P (c_rqs (s_core s)).
Proof.
  induction ops as [|o pre IH] using rev_ind; intros r m s outs Hwf Hd Hok Hfit H.
  - cbn in H. inversion H; subst. split; [intros wk [] | constructor].
  - apply Forall_app in Hwf. destruct Hwf as [Hwf1 Hwf2]. apply Forall_app in Hd. destruct Hd as [Hd1 Hd2].
    destruct (ops_ok_snoc _ _ _ Hok) as [Hok1 Hok2].
    destruct (run_app _ _ _ _ _ H) as (s1 & o1 & o2 & H1 & H2 & ->). cbn [run] in H2. apply bind_ok in H2 as ([s2 o3] & Hs & H2).
    cbn in H2. inversion H2; subst s2 o2. clear H2.
    destruct (fits_run_snoc _ _ _ _ _ H1 Hfit) as [Hfit1 Hfit2].
    destruct (IH r m s1 o1 Hwf1 Hd1 Hok1 Hfit1 H1) as [A1 D1].
    pose proof (reachable_INV_ops _ _ _ _ _ Hwf1 Hok1 H1) as HI1.
    pose proof (reachable_INV_ops _ _ _ _ _ (Forall_snoc _ _ _ Hwf1 (Forall_inv Hwf2)) Hok H) as HI.
    destruct (step_ACC P _ _ _ _ HI1 (inv_w _ HI) A1 Hfit2 (Forall_inv Hd2) Hs) as [A D]. split; [exact A | exact (D D1)].
Qed.
