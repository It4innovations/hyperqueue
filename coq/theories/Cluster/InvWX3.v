(** MNE / RWA / MND (InvWX1.v) across worker loss, client requests and [Sys.step]; every history. *)
From HQ Require Import Base.Prelude Cluster.Types Cluster.Core Cluster.Reactor Cluster.Worker Cluster.Server Cluster.Sys Cluster.Monitors Cluster.RejHyp Cluster.ProofsJob Cluster.ProofsMore Cluster.ProofsTerminal Cluster.ProofsStep Cluster.ProofsFinal Cluster.BijBase Cluster.BijCore Cluster.BijHq Cluster.BijSt Cluster.BijReact Cluster.BijFinal Cluster.InvWBase Cluster.InvWX1.
From HQ Require Import Cluster.ModelFacts.
From HQ Require Import Cluster.ReactSplit.
From Coq Require Import ZArith Lia Sorting.Sorted.
Local Open Scope N_scope.

Arguments N.add : simpl never.
Arguments N.sub : simpl never.

Definition Jx (w : wid) (c : core) : Prop := forall t, In t (c_tasks c) -> okst c (t_state t) \/ t_state t = Retracting w.

Lemma find_del_worker_other ws w w1 : N.eqb w1 w = false -> find_worker (del_worker ws w) w1 = find_worker ws w1.
Proof.
  intros E. induction ws as [|h r IH]; cbn [del_worker find_worker]; [reflexivity|].
  destruct (N.eqb w (w_id h)) eqn:E1.
  - apply N.eqb_eq in E1. subst w. rewrite E. reflexivity.
  - cbn [find_worker]. rewrite IH. reflexivity.
Qed.

Lemma Jx_del c w : J c -> Jx w (with_workers c (del_worker (c_workers c) w)).
Proof.
  intros HJ t Hin. specialize (HJ t Hin). cbn [c_tasks with_workers] in Hin.
  destruct (t_state t) as [n|w1 rv|w1|w1|w1 rv|ws|]; cbn in *; auto.
  destruct (N.eqb w1 w) eqn:E; [apply N.eqb_eq in E; subst; auto|]. left. rewrite find_del_worker_other by exact E. exact HJ.
Qed.

Lemma Jx_R w c c' : Jx w c -> R c c' -> Jx w c'.
Proof.
  intros HJ [T D] t Hin. destruct (T t Hin) as [(t0 & H0 & _ & Es)|[X|[[] _]]]; [|left; exact X].
  rewrite <- Es. destruct (HJ t0 H0) as [X|X]; [left; eapply okst_Dm; eassumption | right; exact X].
Qed.

Lemma lost_retracting_J w l : forall s s',
  CS (core_of s) -> Jx w (core_of s) ->
  (forall t, In t (c_tasks (core_of s)) -> t_state t = Retracting w -> In (t_id t) l) ->
  lost_retracting s w l = Ok s' -> J (core_of s').
Proof.
  induction l as [|id r IH]; cbn [lost_retracting]; intros s s' Hs HJ Hall H.
  - inversion H; subst. intros t Hin. destruct (HJ t Hin) as [X|X]; [exact X|]. destruct (Hall t Hin X).
  - apply bind_ok in H. destruct H as (t & Ht & H). apply get_task_find in Ht.
    destruct (find_task_some _ _ _ Ht) as [Htin Hid].
    assert (Hskip : t_state t <> Retracting w -> lost_retracting s w r = Ok s' -> J (core_of s')).
    { intros Hne Hl. eapply IH; [exact Hs | exact HJ | | exact Hl].
      intros t' Hin' Est'. destruct (Hall t' Hin' Est') as [E|E]; [|exact E]. exfalso.
      pose proof (in_find_task _ _ (CS_sorted _ Hs) Hin') as Hf. rewrite <- E, Ht in Hf. inversion Hf; subst. contradiction. }
    destruct (t_state t) as [n|w1 rv1|w1|w1|w1 rv1|wsx|] eqn:Est; try (apply Hskip; [discriminate | exact H]).
    destruct (N.eqb w w1) eqn:Ew; [|apply Hskip; [intros X; inversion X; subst; rewrite N.eqb_refl in Ew; discriminate | exact H]].
    cbv zeta in H.
    assert (Hgen : forall c' x s1, core_of s1 = c' -> c_tasks c' = set_task (c_tasks (core_of s)) x -> c_workers c' = c_workers (core_of s) ->
              keys c' = keys (core_of s) -> t_id x = id -> okst (core_of s) (t_state x) -> (forall w2, t_state x <> Retracting w2) ->
              lost_retracting s1 w r = Ok s' -> J (core_of s')).
    { intros c' x s1 Ec Et Ewk Ek Ex Ho Hnr Hl. eapply IH; [| | | exact Hl]; rewrite Ec.
      - eapply CS_keys; [exact Ek | exact Hs].
      - eapply Jx_R; [exact HJ|]. eapply (R_set_ok _ _ x); [exact Et | apply Dm_eq; exact Ewk | exact Ho].
      - intros t' Hin' Est'. rewrite Et in Hin'. destruct (set_task_in _ _ _ Hin') as [->|Hin2]; [exfalso; exact (Hnr _ Est')|].
        destruct (Hall t' Hin2 Est') as [E|E]; [|exact E]. exfalso.
        assert (t' = x) by (eapply set_task_in_same; [apply CS_sorted; exact Hs | exact Hin' | rewrite Ex; symmetry; exact E]).
        subst t'. exact (Hnr _ Est'). }
    destruct (find_redirect (c_redirects (core_of s)) id) as [[target rv]|] eqn:Er.
    + apply bind_ok in H. destruct H as (s1 & Hs1 & H).
      eapply (Hgen _ (with_state (with_inst t (t_inst t + 1)) (Assigned target rv)) s1); [exact (send_worker_core _ _ _ _ Hs1) | reflexivity | reflexivity | | exact Hid | exact I | discriminate | exact H].
      apply (upd_task_frame (with_redirects (core_of s) (del_redirect (c_redirects (core_of s)) id)) id t); [exact Hs | exact Ht | reflexivity | reflexivity].
    + eapply (Hgen _ (with_state (with_inst t (t_inst t + 1)) (Waiting 0)) (st_core s (upd_task (core_of s) (with_state (with_inst t (t_inst t + 1)) (Waiting 0))))); [reflexivity | reflexivity | reflexivity | | exact Hid | exact I | discriminate | exact H].
      apply (upd_task_frame (core_of s) id t); [exact Hs | exact Ht | reflexivity | reflexivity].
Qed.

Lemma on_remove_worker_J s w reason a p t s' :
  CB s -> J (core_of s) -> on_remove_worker s w reason a p t = Ok s' -> J (core_of s').
Proof.
  intros HC HJ H. unfold on_remove_worker in H.
  destruct (find_worker (c_workers (core_of s)) w) as [wk|] eqn:Hw; [|discriminate].
  apply bind_ok in H. destruct H as ([[c2 running] retracted] & Hr & H).
  set (c := core_of s) in *.
  set (c0 := with_workers c (del_worker (c_workers c) w)) in *.
  assert (Hs0 : CS c0) by exact (cb_s _ HC).
  assert (A2 : R c0 c2 /\ keys c2 = K s).
  { destruct (w_assign wk) as [sa sp sf|mt root] eqn:Ea.
    - destruct (negb _); [discriminate|]. apply bind_ok in Hr. destruct Hr as (c1 & Hp & Hr). split.
      + eapply R_trans; [eapply lost_prefilled_R; exact Hp | eapply lost_assigned_R; exact Hr].
      + pose proof (lost_prefilled_frame _ _ _ Hs0 Hp) as E1.
        rewrite (lost_assigned_frame _ _ _ _ _ _ _ (CS_keys _ _ E1 Hs0) Hr). exact E1.
    - apply bind_ok in Hr. destruct Hr as (tk & Ht & Hr). apply get_task_find in Ht.
      destruct (find_task_some _ _ _ Ht) as [Htin Hid].
      destruct (t_state tk) as [n|w1 rv1|w1|w1|w1 rv1|ws|] eqn:Est; try discriminate. destruct ws as [|w0 rest] eqn:Ews; [discriminate|].
      destruct (N.eqb w w0) eqn:Ew0.
      + apply bind_ok in Hr. destruct Hr as (c1 & Hc1 & Hr). apply bind_ok in Hr. destruct Hr as ([qs ret] & _ & Hr).
        inversion Hr; subst c2 running retracted. split.
        * eapply R_trans; [eapply reset_mn_all_R; exact Hc1|].
          eapply (R_set_ok _ _ (with_inst (with_state tk (Waiting 0)) (t_inst tk + 1))); [reflexivity | dm | exact I].
        * pose proof (reset_mn_all_frame _ _ _ Hc1) as E1.
          pose proof (reset_mn_all_tasks _ _ _ Hc1) as T1.
          change (keys (upd_task c1 (with_inst (with_state tk (Waiting 0)) (t_inst tk + 1))) = K s).
          transitivity (keys c1); [|exact E1].
          apply (upd_task_frame c1 mt tk); [eapply CS_keys; [exact E1 | exact Hs0] | rewrite T1; exact Ht | reflexivity | reflexivity].
      + inversion Hr; subst c2 running retracted. split.
        * pose proof (HJ tk Htin) as Hok. rewrite Est in Hok. cbn in Hok. destruct Hok as [_ Hnd].
          eapply (R_set_ok _ _ (with_state tk (RunningMN (filter (fun x => negb (N.eqb x w)) (w0 :: rest))))); [reflexivity | dm |].
          cbn [okst t_state with_state]. split; [|apply NoDup_filter; exact Hnd].
          cbn [filter]. rewrite N.eqb_sym, Ew0. cbn [negb]. discriminate.
        * apply (upd_task_frame c0 mt tk); [exact Hs0 | exact Ht | reflexivity | reflexivity]. }
  destruct A2 as [R2 E2].
  destruct (negb (perm_of_set t _)) eqn:Ep; [discriminate|]. apply negb_false_iff in Ep.
  apply bind_ok in H. destruct H as (s3 & H3 & H). apply bind_ok in H. destruct H as (s4 & H4 & H).
  apply bind_ok in H. destruct H as (s6 & H6 & H). apply bind_ok in H. destruct H as (s7 & H7 & H). inversion H; subst s'.
  assert (Hs2 : CS c2) by (eapply CS_keys; [exact E2 | exact (cb_s _ HC)]).
  assert (J3 : J (core_of s3)).
  { eapply (lost_retracting_J w t); [| | | exact H3].
    - exact Hs2.
    - eapply Jx_R; [apply Jx_del; exact HJ | exact R2].
    - intros t' Hin' _. unfold perm_of_set in Ep. apply andb_true_iff in Ep. destruct Ep as [_ Ep]. rewrite forallb_forall in Ep.
      apply tid_mem_In. apply Ep. apply in_map. exact Hin'. }
  destruct (process_worker_lost_active _ _ _ _ _ H6) as [C6 _]. unfold core_same in C6.
  eapply J_R; [exact J3|].
  eapply R_trans; [eapply process_retracted_R; exact H4|].
  eapply R_trans; [|eapply R_trans; [eapply lost_fail_running_R; exact H7 | apply R_tasks; [reflexivity | dm]]].
  rewrite C6. apply Rm_refl.
Qed.

Lemma handle_cancel_R s jid s' : handle_cancel s jid = Ok s' -> R (core_of s) (core_of s').
Proof.
  intros H. unfold handle_cancel in H.
  destruct (find_job (hq_jobs s) jid) as [j|]; [|inversion H; subst; apply Rm_refl].
  destruct (non_finished_task_ids j) as [|i0 ir] eqn:En; [inversion H; subst; apply Rm_refl|]. rewrite <- En in *. clear En.
  apply bind_ok in H. destruct H as (s1 & H1 & H). apply bind_ok in H. destruct H as (al & _ & H).
  apply bind_ok in H. destruct H as (s2 & H2 & H). inversion H; subst s'.
  destruct (set_cancel_state_active _ _ _ _ H2) as [C2 _]. unfold core_same in C2.
  change (R (core_of s) (core_of s2)). rewrite C2. eapply on_cancel_tasks_R; exact H1.
Qed.

Lemma get_or_create_rq_R s r : R (core_of s) (core_of (fst (get_or_create_rq s r))).
Proof. apply R_agree, get_or_create_rq_agree. Qed.

Lemma fold_rqs_R rqs : forall s l s4 rqis,
  fold_left (fun acc r => let '(s, l) := acc in let '(s', i) := get_or_create_rq s r in (s', l ++ [i])) rqs (s, l) = (s4, rqis) ->
  R (core_of s) (core_of s4).
Proof. intros s l s4 rqis H. eapply R_agree, fold_rqs_agree, H. Qed.

Lemma submit_shape_R s s' : submit_shape s s' -> R (core_of s) (core_of s').
Proof.
  intros [E | (s5 & tasks & s6 & F & H6 & E)]; rewrite E; [apply Rm_refl|].
  eapply R_trans; [exact (R_agree _ _ F) | eapply on_new_tasks_R; exact H6].
Qed.

Lemma handle_submit_array_R s jobsel ids entries rq prio cl tlim mf s' :
  handle_submit_array s jobsel ids entries rq prio cl tlim mf = Ok s' -> R (core_of s) (core_of s').
Proof. intros H. exact (submit_shape_R _ _ (handle_submit_array_shape _ _ _ _ _ _ _ _ _ _ H)). Qed.

Lemma handle_submit_graph_R s jobsel rqs ts mf s' :
  handle_submit_graph s jobsel rqs ts mf = Ok s' -> R (core_of s) (core_of s').
Proof. intros H. exact (submit_shape_R _ _ (handle_submit_graph_shape _ _ _ _ _ _ H)). Qed.

Theorem step_J s o s' outs : CB (s, []) -> J (s_core s) -> step s o = Ok (s', outs) -> J (s_core s').
Proof.
  intros HC HJ H. destruct (step_cases _ _ _ _ H) as [E|Hc]; [rewrite E; exact HJ|].
  change (J (core_of (s', outs))).
  assert (HR : R (s_core s) (core_of (s', outs)) -> J (core_of (s', outs))) by (intros X; eapply J_R; [exact HJ | exact X]).
  destruct o; try contradiction.
  - apply HR. exact (on_new_worker_R (s, []) _ _ _ Hc).
  - exact (on_remove_worker_J (s, []) _ _ _ _ _ _ HC HJ Hc).
  - apply HR. exact (handle_submit_array_R (s, []) _ _ _ _ _ _ _ _ _ Hc).
  - apply HR. exact (handle_submit_graph_R (s, []) _ _ _ _ _ Hc).
  - apply HR. exact (handle_cancel_R (s, []) _ _ Hc).
  - apply HR. destruct Hc as (p & m & rest & _ & _ & Hc). cbv zeta in Hc.
    destruct m; [match type of Hc with on_task_update ?s1 _ _ = _ => exact (on_task_update_R s1 _ _ _ Hc) end
      | match type of Hc with on_retract_response ?s1 _ _ = _ => exact (on_retract_response_R s1 _ _ _ Hc) end].
  - exact (run_scheduling_J (s, []) _ _ (cb_s _ HC) HJ Hc).
Qed.

Theorem run_J ops : forall s s' outs,
  HOK (s_hq s) -> fresh (s, []) -> Forall op_wf ops -> CB (s, []) -> J (s_core s) ->
  run s ops = Ok (s', outs) -> J (s_core s').
Proof.
  induction ops as [|o r IH]; cbn [run]; intros s s' outs Hok F Hwf HC HJ H; [inversion H; subst; exact HJ|].
  inversion Hwf as [|? ? Hw1 Hw2]; subst.
  apply bind_ok in H. destruct H as ([s1 o1] & H1 & H). apply bind_ok in H. destruct H as ([s2 o2] & H2 & H). inversion H; subst.
  pose proof (step_CB _ _ _ _ Hok F Hw1 HC H1) as HC1.
  pose proof (step_hq_ok _ _ _ _ Hok H1) as Hok1.
  pose proof (G_step _ _ _ _ F H1) as G1.
  assert (F1 : fresh (s1, [])) by (apply (fresh_outs s1 o1); apply (g_fresh _ _ G1); exact F).
  pose proof (step_J _ _ _ _ HC HJ H1) as HJ1.
  eapply IH; [exact Hok1 | exact F1 | exact Hw2 | eapply CB_outs; exact HC1 | exact HJ1 | exact H2].
Qed.

Lemma reachable_J ops reserve maxfill s outs :
  Forall op_wf ops -> run (init_sys reserve maxfill) ops = Ok (s, outs) -> J (s_core s).
Proof.
  intros Hwf H.
  assert (HC0 : CB (init_sys reserve maxfill, [])).
  { constructor; [constructor | intros id cs x [] | ]. intros x. split; [intros [] | intros (l & Hl & _); discriminate]. }
  assert (Hok0 : HOK (s_hq (init_sys reserve maxfill))) by (intros j []).
  assert (F0 : fresh (init_sys reserve maxfill, [])) by (intros j []).
  assert (J0 : J (s_core (init_sys reserve maxfill))) by (intros t []).
  exact (run_J _ _ _ _ Hok0 F0 Hwf HC0 J0 H).
Qed.

(** MNE: no task is [RunningMN []].  RWA: the worker a task is being retracted from is connected.
    MND: the workers of a multi-node task are pairwise distinct.
    (The hypothesis [run_fresh] is not needed; it is kept for uniformity with the other invariants.) *)
Theorem reachable_MNE_RWA ops reserve maxfill s outs :
  Forall op_wf ops -> run_fresh (init_sys reserve maxfill) ops = true -> run (init_sys reserve maxfill) ops = Ok (s, outs) ->
  MNE (s_core s) /\ RWA (s_core s).
Proof. intros Hwf _ H. pose proof (reachable_J _ _ _ _ _ Hwf H) as HJ. apply J_MNE_RWA in HJ. split; apply HJ. Qed.

Theorem reachable_MND ops reserve maxfill s outs :
  Forall op_wf ops -> run (init_sys reserve maxfill) ops = Ok (s, outs) -> MND (s_core s).
Proof. intros Hwf H. pose proof (reachable_J _ _ _ _ _ Hwf H) as HJ. apply J_MNE_RWA in HJ. apply HJ. Qed.

(** The multi-node part in the form the no-panic proofs use. *)
Theorem reachable_MNOK ops reserve maxfill s outs :
  Forall op_wf ops -> run_fresh (init_sys reserve maxfill) ops = true -> run (init_sys reserve maxfill) ops = Ok (s, outs) ->
  forall t ws, In t (c_tasks (s_core s)) -> t_state t = RunningMN ws -> ws <> [] /\ NoDup ws.
Proof.
  intros Hwf Hf H t ws Hin Est.
  destruct (reachable_MNE_RWA _ _ _ _ _ Hwf Hf H) as [H1 _]. pose proof (reachable_MND _ _ _ _ _ Hwf H) as H3.
  split; [intros ->; exact (H1 t Hin Est) | exact (H3 t ws Hin Est)].
Qed.

Theorem reachable_MNE_RWA_MNOK ops reserve maxfill s outs :
  Forall op_wf ops -> run_fresh (init_sys reserve maxfill) ops = true -> run (init_sys reserve maxfill) ops = Ok (s, outs) ->
  MNE (s_core s) /\ RWA (s_core s) /\
  (forall t ws, In t (c_tasks (s_core s)) -> t_state t = RunningMN ws -> ws <> [] /\ NoDup ws).
Proof.
  intros Hwf Hf H. destruct (reachable_MNE_RWA _ _ _ _ _ Hwf Hf H) as [H1 H2].
  split; [exact H1|]. split; [exact H2|]. exact (reachable_MNOK _ _ _ _ _ Hwf Hf H).
Qed.
