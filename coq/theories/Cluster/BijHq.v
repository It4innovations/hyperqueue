(** C02 bijection, part 3: what the job layer's functions do to the set of ACTIVE (waiting or
    running) tasks, and that they never touch the core. *)
From HQ Require Import Base.Prelude Cluster.Types Cluster.Core Cluster.Reactor Cluster.Worker Cluster.Server Cluster.Sys Cluster.ProofsJob Cluster.ProofsMore Cluster.ProofsTerminal Cluster.ProofsStep Cluster.BijBase.
From HQ Require Import Cluster.ModelFacts.
From Coq Require Import ZArith Lia.
Local Open Scope N_scope.

Arguments N.add : simpl never.
Arguments N.sub : simpl never.

Definition core_same (s s' : st) : Prop := core_of s' = core_of s.

Lemma jt_get s id site j : hq_get_job s id site = Ok j -> jt s id = Some (j_tasks j) /\ j_id j = id.
Proof.
  unfold hq_get_job, jt, hq_of. destruct (find_job _ id) as [j0|] eqn:E; [|discriminate].
  intros H; inversion H; subst. split; [reflexivity | eapply find_job_id; exact E].
Qed.

Lemma check_termination_jt s jid s' : check_termination s jid = Ok s' -> core_same s s' /\ forall id, jt s' id = jt s id.
Proof.
  unfold check_termination. intros H. apply bind_ok in H. destruct H as (j & Hj & H).
  apply bind_ok in H. destruct H as (na & _ & H).
  destruct (jt_get _ _ _ _ Hj) as [Ej Eid].
  destruct na; [|inversion H; subst; split; [reflexivity | auto]].
  destruct (j_open j); inversion H; subst; (split; [reflexivity|]); [auto|].
  intros id. rewrite jt_emit, jt_set_job. cbn [j_id job_upd j_tasks].
  destruct (N.eqb id (j_id j)) eqn:E; [apply N.eqb_eq in E; subst id; symmetry; exact Ej | reflexivity].
Qed.

Lemma active_set_one s s' t l v v' :
  jt s (fst t) = Some l -> jt_find l (snd t) = Some v ->
  (forall id, jt s' id = if N.eqb id (fst t) then Some (jt_set l (snd t) v') else jt s id) ->
  forall x, active s' x <-> (if tid_eqb x t then jactive (Some v') else active s x).
Proof.
  intros Hl Hv E x. unfold active. rewrite E.
  destruct (N.eqb (fst x) (fst t)) eqn:E1.
  - apply N.eqb_eq in E1. unfold tid_eqb. rewrite E1, N.eqb_refl. cbn [andb].
    rewrite Hl. destruct (N.eqb (snd x) (snd t)) eqn:E2.
    + split.
      * intros (l0 & Hl0 & Ha). inversion Hl0; subst l0. rewrite jt_find_set, E2 in Ha. exact Ha.
      * intros Ha. eexists. split; [reflexivity|]. rewrite jt_find_set, E2. exact Ha.
    + split.
      * intros (l0 & Hl0 & Ha). inversion Hl0; subst l0. rewrite jt_find_set, E2 in Ha. eauto.
      * intros (l0 & Hl0 & Ha). inversion Hl0; subst l0. eexists. split; [reflexivity|]. rewrite jt_find_set, E2. exact Ha.
  - unfold tid_eqb. rewrite E1. cbn [andb]. reflexivity.
Qed.

Lemma active_unchanged_one s s' t l v v' :
  jt s (fst t) = Some l -> jt_find l (snd t) = Some v -> jactive (Some v) -> jactive (Some v') ->
  (forall id, jt s' id = if N.eqb id (fst t) then Some (jt_set l (snd t) v') else jt s id) ->
  forall x, active s' x <-> active s x.
Proof.
  intros Hl Hv A A' E x. rewrite (active_set_one _ _ _ _ _ _ Hl Hv E).
  destruct (tid_eqb x t) eqn:Ex; [|reflexivity]. apply tid_eqb_eq in Ex. subst x.
  split; [intros _; exists l; split; [exact Hl | rewrite Hv; exact A] | intros _; exact A'].
Qed.

Lemma active_removed_one s s' t l v v' :
  jt s (fst t) = Some l -> jt_find l (snd t) = Some v -> ~ jactive (Some v') ->
  (forall id, jt s' id = if N.eqb id (fst t) then Some (jt_set l (snd t) v') else jt s id) ->
  forall x, active s' x <-> active s x /\ x <> t.
Proof.
  intros Hl Hv A' E x. rewrite (active_set_one _ _ _ _ _ _ Hl Hv E).
  destruct (tid_eqb x t) eqn:Ex.
  - apply tid_eqb_eq in Ex. subst x. split; [intros H; contradiction | intros [_ H]; congruence].
  - apply tid_eqb_neq in Ex. tauto.
Qed.

Lemma not_active_F : ~ jactive (Some JF). Proof. intros [H|H]; discriminate. Qed.
Lemma not_active_X : ~ jactive (Some JX). Proof. intros [H|H]; discriminate. Qed.
Lemma not_active_C : ~ jactive (Some JC). Proof. intros [H|H]; discriminate. Qed.
Lemma not_active_A : ~ jactive (Some JA). Proof. intros [H|H]; discriminate. Qed.
Lemma active_W : jactive (Some JW). Proof. left; reflexivity. Qed.
Lemma active_R : jactive (Some JR). Proof. right; reflexivity. Qed.

Lemma process_task_started_active s t i ws rv s' :
  process_task_started s t i ws rv = Ok s' -> core_same s s' /\ forall x, active s' x <-> active s x.
Proof.
  unfold process_task_started. intros H. apply bind_ok in H. destruct H as (j & Hj & H).
  destruct (jt_get _ _ _ _ Hj) as [Ej Eid].
  destruct (jt_find (j_tasks j) (snd t)) as [v|] eqn:Ef; [|discriminate].
  inversion H; subst. split; [reflexivity|].
  destruct v; try (apply active_same; intros id; rewrite jt_emit, jt_set_job;
    destruct (N.eqb id (j_id j)) eqn:E; [apply N.eqb_eq in E; subst id; rewrite Eid; symmetry; exact Ej | reflexivity]).
  eapply (active_unchanged_one s _ t _ JW JR Ej Ef active_W active_R).
  intros id. rewrite jt_emit, jt_set_job. cbn [j_id job_upd j_tasks]. rewrite Eid. reflexivity.
Qed.

Lemma process_task_finished_active s t s' :
  process_task_finished s t = Ok s' -> core_same s s' /\ forall x, active s' x <-> active s x /\ x <> t.
Proof.
  unfold process_task_finished. intros H. apply bind_ok in H. destruct H as (j & Hj & H).
  destruct (jt_get _ _ _ _ Hj) as [Ej Eid].
  destruct (jt_find (j_tasks j) (snd t)) as [v|] eqn:Ef; [|discriminate].
  destruct v; try discriminate. apply bind_ok in H. destruct H as (nr & _ & H).
  destruct (check_termination_jt _ _ _ H) as [C1 J1]. split; [unfold core_same in *; rewrite C1; reflexivity|].
  eapply (active_removed_one s _ t _ JR JF Ej Ef not_active_F).
  intros id. rewrite J1, jt_emit, jt_set_job. cbn [j_id job_upd j_tasks]. rewrite Eid. reflexivity.
Qed.

Lemma set_waiting_state_active s t s' :
  set_waiting_state s t = Ok s' -> core_same s s' /\ forall x, active s' x <-> active s x.
Proof.
  unfold set_waiting_state. intros H. apply bind_ok in H. destruct H as (j & Hj & H).
  destruct (jt_get _ _ _ _ Hj) as [Ej Eid].
  destruct (jt_find (j_tasks j) (snd t)) as [v|] eqn:Ef; [|discriminate].
  destruct v; try (inversion H; subst; split; [reflexivity | reflexivity]).
  apply bind_ok in H. destruct H as (nr & _ & H). inversion H; subst. split; [reflexivity|].
  eapply (active_unchanged_one s _ t _ JR JW Ej Ef active_R active_W).
  intros id. rewrite jt_set_job. cbn [j_id job_upd j_tasks]. rewrite Eid. reflexivity.
Qed.

Lemma set_waiting_all_active ts : forall s s',
  set_waiting_all s ts = Ok s' -> core_same s s' /\ forall x, active s' x <-> active s x.
Proof.
  induction ts as [|t r IH]; cbn [set_waiting_all]; intros s s' H; [inversion H; subst; split; reflexivity|].
  apply bind_ok in H. destruct H as (s1 & H1 & H).
  destruct (set_waiting_state_active _ _ _ H1) as [C1 A1]. destruct (IH _ _ H) as [C2 A2].
  split; [unfold core_same in *; congruence|]. intros x. rewrite A2, A1. reflexivity.
Qed.

Lemma process_worker_lost_active s w running reason s' :
  process_worker_lost s w running reason = Ok s' -> core_same s s' /\ forall x, active s' x <-> active s x.
Proof.
  unfold process_worker_lost. intros H. apply bind_ok in H. destruct H as (s1 & H1 & H). inversion H; subst.
  destruct (set_waiting_all_active _ _ _ H1) as [C1 A1]. split; [exact C1 | exact A1].
Qed.

Definition snd_mem (k : N) (ids : list tid) : bool := existsb (fun t => N.eqb (snd t) k) ids.

Lemma mark_tasks_find target site ids : forall j j',
  mark_tasks j ids target site = Ok j' ->
  j_id j' = j_id j /\
  (forall t, In t ids -> fst t = j_id j) /\
  (forall k, jt_find (j_tasks j') k = if snd_mem k ids then Some target else jt_find (j_tasks j) k).
Proof.
  induction ids as [|t r IH]; cbn [mark_tasks snd_mem existsb]; intros j j' H.
  - inversion H; subst. split; [reflexivity | split; [intros t [] | reflexivity]].
  - destruct (negb (N.eqb (fst t) (j_id j))) eqn:Ej; [discriminate|].
    apply negb_false_iff in Ej. apply N.eqb_eq in Ej.
    destruct (jt_find (j_tasks j) (snd t)) as [v|] eqn:Ef; [|discriminate].
    assert (Hstep : forall j1, j_id j1 = j_id j -> j_tasks j1 = jt_set (j_tasks j) (snd t) target ->
              mark_tasks j1 r target site = Ok j' ->
              j_id j' = j_id j /\ (forall t0, t = t0 \/ In t0 r -> fst t0 = j_id j) /\
              (forall k, jt_find (j_tasks j') k = if N.eqb (snd t) k || existsb (fun t0 => N.eqb (snd t0) k) r then Some target else jt_find (j_tasks j) k)).
    { intros j1 Hid Ht H1. destruct (IH _ _ H1) as (I1 & I2 & I3). split; [congruence|]. split.
      - intros t0 [<-|Hin]; [exact Ej | rewrite <- Hid; apply I2; exact Hin].
      - intros k. rewrite I3. fold (snd_mem k r). destruct (snd_mem k r); [rewrite orb_true_r; reflexivity|].
        rewrite orb_false_r, Ht, jt_find_set. rewrite (N.eqb_sym k). reflexivity. }
    destruct v; try discriminate.
    + eapply Hstep; [| |exact H]; reflexivity.
    + apply bind_ok in H. destruct H as (nr & _ & H). eapply Hstep; [| |exact H]; reflexivity.
Qed.

Lemma snd_mem_in k ids jid : (forall t, In t ids -> fst t = jid) -> (snd_mem k ids = true <-> In (jid, k) ids).
Proof.
  intros Hj. unfold snd_mem. rewrite existsb_exists. split.
  - intros (t & Hin & E). apply N.eqb_eq in E. specialize (Hj _ Hin). destruct t as [a b]. cbn in *. subst. exact Hin.
  - intros Hin. exists (jid, k). split; [exact Hin | apply N.eqb_refl].
Qed.

(** The common shape of [abort_tasks] and [set_cancel_state]. *)
Lemma mark_active s jid j j1 j2 ids target site s2 :
  ~ jactive (Some target) ->
  hq_get_job s jid 207 = Ok j -> mark_tasks j ids target site = Ok j1 ->
  j_id j2 = j_id j1 -> j_tasks j2 = j_tasks j1 ->
  (forall id, jt s2 id = jt (hq_set_job s j2) id) ->
  forall x, active s2 x <-> active s x /\ ~ In x ids.
Proof.
  intros Hna Hj Hm Hid Ht E x. destruct (jt_get _ _ _ _ Hj) as [Ej Eid].
  destruct (mark_tasks_find _ _ _ _ _ Hm) as (M1 & M2 & M3).
  unfold active. rewrite E, jt_set_job, Hid, M1, Eid, Ht.
  destruct (N.eqb (fst x) jid) eqn:E1.
  - apply N.eqb_eq in E1. rewrite E1, Ej. rewrite Eid in M2.
    pose proof (snd_mem_in (snd x) ids jid M2) as Hmem.
    assert (Hx : x = (jid, snd x)) by (destruct x; cbn in *; subst; reflexivity).
    split.
    + intros (l0 & Hl0 & Ha). inversion Hl0; subst l0. rewrite M3 in Ha.
      destruct (snd_mem (snd x) ids) eqn:Em; [contradiction|].
      split; [eauto|]. intros Hin. rewrite Hx in Hin. apply Hmem in Hin. congruence.
    + intros [(l0 & Hl0 & Ha) Hn]. inversion Hl0; subst l0. eexists. split; [reflexivity|]. rewrite M3.
      destruct (snd_mem (snd x) ids) eqn:Em; [exfalso; apply Hn; rewrite Hx; apply Hmem; reflexivity | exact Ha].
  - split; [intros H; split; [exact H|] | intros [H _]; exact H].
    intros Hin. apply M2 in Hin. rewrite Eid in Hin. rewrite Hin, N.eqb_refl in E1. discriminate.
Qed.

Lemma abort_tasks_active s jid ids s' :
  abort_tasks s jid ids = Ok s' -> core_same s s' /\ forall x, active s' x <-> active s x /\ ~ In x ids.
Proof.
  unfold abort_tasks. destruct ids as [|i0 ir] eqn:Eids; [intros H; inversion H; subst; split; [reflexivity | intros x; cbn; tauto]|].
  rewrite <- Eids. intros H. apply bind_ok in H. destruct H as (j & Hj & H). apply bind_ok in H. destruct H as (j1 & Hm & H).
  destruct (check_termination_jt _ _ _ H) as [C1 J1]. split; [unfold core_same in *; rewrite C1; reflexivity|].
  match type of H with check_termination (emit (hq_set_job s ?j2) _) _ = _ =>
    eapply (mark_active s jid j j1 j2 ids JA 206 s' not_active_A Hj Hm) end; [reflexivity | reflexivity|].
  intros id. rewrite J1, jt_emit. reflexivity.
Qed.

Lemma set_cancel_state_active s jid ids s' :
  set_cancel_state s jid ids = Ok s' -> core_same s s' /\ forall x, active s' x <-> active s x /\ ~ In x ids.
Proof.
  unfold set_cancel_state. destruct ids as [|i0 ir] eqn:Eids; [intros H; inversion H; subst; split; [reflexivity | intros x; cbn; tauto]|].
  rewrite <- Eids. intros H. apply bind_ok in H. destruct H as (j & Hj & H). apply bind_ok in H. destruct H as (j1 & Hm & H).
  destruct (check_termination_jt _ _ _ H) as [C1 J1]. split; [unfold core_same in *; rewrite C1; reflexivity|].
  match type of H with check_termination (emit (emit (hq_set_job s ?j2) _) _) _ = _ =>
    eapply (mark_active s jid j j1 j2 ids JC 205 s' not_active_C Hj Hm) end; [reflexivity | reflexivity|].
  intros id. rewrite J1, !jt_emit. reflexivity.
Qed.

Lemma jsorted_find l k v : jsorted l -> In (k, v) l -> jt_find l k = Some v.
Proof.
  induction l as [|[k0 v0] r IH]; [intros _ []|]. intros Hs [Heq|Hin]; cbn [jt_find].
  - inversion Heq; subst. rewrite N.eqb_refl. reflexivity.
  - cbn in Hs. destruct Hs as [Hlt Hs']. destruct (N.eqb k k0) eqn:E.
    + apply N.eqb_eq in E. subst k0. specialize (Hlt _ _ Hin). lia.
    + apply IH; assumption.
Qed.

Lemma non_finished_in j x :
  jsorted (j_tasks j) ->
  (In x (non_finished_task_ids j) <-> fst x = j_id j /\ jactive (jt_find (j_tasks j) (snd x))).
Proof.
  intros Hs. unfold non_finished_task_ids. rewrite in_map_iff. split.
  - intros ([k v] & Ex & Hin). apply filter_In in Hin. destruct Hin as [Hin Hv]. cbn in *. subst x. cbn.
    split; [reflexivity|]. rewrite (jsorted_find _ _ _ Hs Hin). destruct v; try discriminate; [left | right]; reflexivity.
  - intros [Hj Ha]. destruct (jt_find (j_tasks j) (snd x)) as [v|] eqn:Ef; [|destruct Ha; discriminate].
    exists (snd x, v). split; [destruct x; cbn in *; subst; reflexivity|].
    apply filter_In. split; [apply jt_find_in; exact Ef|]. cbn. destruct Ha as [Ha|Ha]; inversion Ha; reflexivity.
Qed.

Lemma process_task_failed_core s t ab k s' ids : process_task_failed s t ab k = Ok (s', ids) -> core_of s' = core_of s.
Proof.
  apply (process_task_failed_rel (fun x x' => core_of x' = core_of x)); [intros a b c A B; congruence | | reflexivity |].
  - intros s0 jid l s1 X. exact (proj1 (abort_tasks_active _ _ _ _ X)).
  - intros s0 jid s1 X. exact (proj1 (check_termination_jt _ _ _ X)).
Qed.
