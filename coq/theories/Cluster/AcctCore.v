(** C05 / I1: the whole [Monitors.core_ok], conjunct by conjunct, for every reachable state.

      worker_sets_ok     InvW*.v   ([INV], [WI_worker_sets_ok])
      task_place_ok      InvW*.v + InvQ*.v ([WI_task_places] + [queue_statement]; assembled here)
      queues_live_ok     InvQ*.v   ([queue_statement])
      worker_accounting  Acct*.v   ([accounting_exact]; hypotheses [fits_run], [op_dim])
      deps_ok            InvD*.v   ([deps_invariant_ops])
      mn_ok              NOT available in full: "the workers of a multi-node task are of one group"
                         is a property of the solver's answer, which the cluster model takes as an
                         unconstrained witness ([core_ok_needs_one_group]); the rest of [mn_ok]
                         (distinct, non-empty, connected workers) is proved ([mn_ok_but_group]). *)
From HQ Require Import Base.Prelude Cluster.Types Cluster.Core Cluster.Reactor Cluster.Worker Cluster.Server Cluster.Sys Cluster.Monitors Cluster.BijBase Cluster.BijCore Cluster.BijReact Cluster.BijFinal Cluster.InvWBase Cluster.InvWCore Cluster.InvWFinal Cluster.InvQBase Cluster.InvQStep Cluster.InvAll Cluster.InvBundle Cluster.InvWX1 Cluster.InvWX3 Cluster.NoPanicU0 Cluster.NoPanicU20 Cluster.NoFresh Cluster.AcctBase Cluster.AcctStep Cluster.AcctFinal.
From HQ Require Import Cluster.ModelFacts.
From Coq Require Import ZArith Lia.
Local Open Scope N_scope.

Lemma task_place_ok_of c : WI c -> CS c -> queue_statement c -> forallb (task_place_ok c) (c_tasks c) = true.
Proof.
  intros HW HS (_ & Q & _). apply forallb_forall. intros t Hin.
  pose proof (WI_task_places c HW HS t Hin) as P. specialize (Q t Hin). cbv zeta in Q.
  unfold task_place_ok. cbv zeta.
  destruct (t_state t) as [n|w rv|w|w|w rv|ws|]; [| | | | | |contradiction]; destruct Q as [Q1 Q2]; rewrite Q1.
  2,3,5: destruct P as (wk & a & p & f & E1 & E2 & E3); rewrite Q2, E1, E2, E3; reflexivity.
  - rewrite Q2. destruct (N.eqb n 0); reflexivity.
  - rewrite Q2. destruct (find_redirect (c_redirects c) (t_id t)) as [[target rv]|]; [|reflexivity].
    destruct (P target rv eq_refl) as (wk & a & p & f & E1 & E2 & E3). rewrite E1, E2, E3. reflexivity.
  - cbn [negb andb]. apply forallb_forall. intros w Hw.
    destruct (P w Hw) as (wk & root & E1 & E2). rewrite E1, E2. apply tid_eqb_refl.
Qed.

Definition mn_ok_but_group_def (c : core) (t : task) : Prop :=
  match t_state t with
  | RunningMN ws => ws <> [] /\ NoDup ws /\ forall w, In w ws -> exists wk root, find_worker (c_workers c) w = Some wk /\ w_assign wk = Mn (t_id t) root
  | _ => True
  end.

Section Reach.
Variables (ops : list op) (r m : N) (s : sys) (outs : list out).
Hypothesis Hwf : Forall op_wf ops.
Hypothesis Hok : ops_ok (init_sys r m) ops = true.
Hypothesis Hrun : run (init_sys r m) ops = Ok (s, outs).

Let HI : INV s := reachable_INV_ops ops r m s outs Hwf Hok Hrun.

Theorem mn_ok_but_group : forall t, In t (c_tasks (s_core s)) -> mn_ok_but_group_def (s_core s) t.
Proof.
  intros t Hin. unfold mn_ok_but_group_def. destruct (t_state t) as [n|w rv|w|w|w rv|ws|] eqn:Est; try exact I.
  pose proof (fresh_of_ops ops r m s outs Hwf Hok Hrun) as Hf.
  destruct (reachable_MNOK _ _ _ _ _ Hwf Hf Hrun t ws Hin Est) as [H1 H2]. split; [exact H1|]. split; [exact H2|].
  pose proof (WI_task_places _ (inv_w _ HI) (cb_s _ (inv_cb _ HI)) t Hin) as P. rewrite Est in P. exact P.
Qed.

(** Everything but the accounting and the group of multi-node placements needs no dynamic hypothesis. *)
Theorem core_ok_rest :
  forallb (worker_sets_ok (s_core s)) (c_workers (s_core s)) = true /\
  forallb (task_place_ok (s_core s)) (c_tasks (s_core s)) = true /\
  queues_live_ok (s_core s) = true /\
  forallb (deps_ok (s_core s)) (c_tasks (s_core s)) = true.
Proof.
  split; [exact (WI_worker_sets_ok _ (inv_w _ HI))|].
  split; [exact (task_place_ok_of _ (inv_w _ HI) (cb_s _ (inv_cb _ HI)) (inv_qs _ HI))|].
  split; [exact (proj1 (inv_qs _ HI)) | exact (deps_invariant_ops ops r m s outs Hwf Hok Hrun)].
Qed.
(** The full invariant I1. *)
Theorem core_ok_exact :
  Forall op_dim ops -> fits_run (init_sys r m) ops = true ->
  forallb (mn_ok (s_core s)) (c_tasks (s_core s)) = true ->
  core_ok (s_core s) = true.
Proof.
  intros Hd Hfit Hmn. destruct core_ok_rest as (W & T & Q & D). unfold core_ok.
  rewrite W, T, Q, (accounting_exact ops r m s outs Hwf Hd Hok Hfit Hrun), Hmn, D. reflexivity.
Qed.
End Reach.

(** The hypothesis on [mn_ok] cannot be dropped: the model accepts a multi-node placement across two
    worker groups (the real solver does not produce one). *)
Definition h_two_groups : list op :=
  [OpConnect [2; 0; 0] 0; OpConnect [2; 0; 0] 1;
   OpSubmit None [] None rqm 0%Z CUnl false None;
   OpSched (mkSol [] [(0, 0, [[1; 2]])] [1; 2] [])].

Example core_ok_needs_one_group :
  exists s outs, Forall op_wf h_two_groups /\ Forall op_dim h_two_groups /\ ops_ok (init_sys 0 2) h_two_groups = true /\
    fits_run (init_sys 0 2) h_two_groups = true /\ run (init_sys 0 2) h_two_groups = Ok (s, outs) /\
    forallb (mn_ok (s_core s)) (c_tasks (s_core s)) = false /\ core_ok (s_core s) = false.
Proof.
  destruct (run (init_sys 0 2) h_two_groups) as [[s outs]| |] eqn:E; [|vm_compute in E; discriminate | vm_compute in E; discriminate].
  exists s, outs. split; [repeat constructor; cbn; lia|]. split; [repeat constructor; cbn; lia|].
  split; [vm_compute; reflexivity|]. split; [vm_compute; reflexivity|]. split; [reflexivity|].
  vm_compute in E. inversion E; subst. split; vm_compute; reflexivity.
Qed.

(** [core_ok_exact] on a concrete history: what is left is evaluation. *)
Lemma core_ok_exact_run ops r m :
  Forall op_wf ops -> Forall op_dim ops -> ops_ok (init_sys r m) ops = true -> fits_run (init_sys r m) ops = true ->
  match run (init_sys r m) ops with Ok (s, _) => forallb (mn_ok (s_core s)) (c_tasks (s_core s)) | _ => false end = true ->
  exists s outs, run (init_sys r m) ops = Ok (s, outs) /\ core_ok (s_core s) = true.
Proof.
  intros Hwf Hd Hok Hfit Hmn. destruct (run (init_sys r m) ops) as [[s outs]| |] eqn:E; try discriminate.
  exists s, outs. split; [reflexivity|]. exact (core_ok_exact ops r m s outs Hwf Hok E Hd Hfit Hmn).
Qed.

(** [core_ok_exact] applies to non-trivial histories (prefill with self-started tasks; multi-node). *)
Example core_ok_exact_applies :
  (exists s outs, run (init_sys 0 2) h_prefill = Ok (s, outs) /\ core_ok (s_core s) = true) /\
  (exists s outs, run (init_sys 0 2) h_mn = Ok (s, outs) /\ core_ok (s_core s) = true).
Proof.
  split; (apply core_ok_exact_run; [repeat constructor; cbn; lia | repeat constructor; cbn; lia | vm_compute; reflexivity ..]).
Qed.

Print Assumptions core_ok_exact.
Print Assumptions mn_ok_but_group.
