(** Protocol invariant, part 15: task submission ([OpSubmit], [OpSubmitG]) preserves [PROTO]:
    a new request class is announced to every worker, new tasks enter the core. *)
From HQ Require Import Base.Prelude Cluster.Types Cluster.Core Cluster.Reactor Cluster.Worker Cluster.Server Cluster.Sys Cluster.ProofsJob Cluster.ProofsMore Cluster.ProofsTerminal Cluster.ProofsStep Cluster.ProofsFinal Cluster.BijBase Cluster.BijCore Cluster.BijHq Cluster.BijSt Cluster.BijReact Cluster.BijFinal Cluster.InvDStep Cluster.NoPanicC1 Cluster.NoPanicU0 Cluster.NoPanicU1 Cluster.NoPanicU2 Cluster.NoPanicU5 Cluster.NoPanicU6 Cluster.NoPanicU7 Cluster.NoPanicU8 Cluster.NoPanicU9 Cluster.NoPanicU10 Cluster.NoPanicU11 Cluster.NoPanicU14.
From HQ Require Import Cluster.ModelFacts.
From Coq Require Import ZArith Lia Sorting.Sorted.
Local Open Scope N_scope.

Notation jactive := NoPanicU6.jactive.

Lemma ct_ok_ext rqs r n ct : ct_ok rqs n ct = true -> ct_ok (rqs ++ [r]) n ct = true.
Proof.
  unfold ct_ok. rewrite !andb_true_iff, !orb_true_iff. intros [A [B|B]]; (split; [exact A|]); [left; exact B | right].
  destruct (nth_error rqs (N.to_nat (ct_rq ct))) as [r0|] eqn:E; [|discriminate].
  rewrite nth_error_app1; [rewrite E; exact B | apply nth_error_Some; congruence].
Qed.
Lemma down_ok_ext rqs r d : forall n, down_ok rqs n d = true -> down_ok (rqs ++ [r]) n d = true.
Proof.
  induction d as [|m t IH]; intros n H; [reflexivity|]. destruct m; cbn [down_ok] in *; try (apply IH; exact H).
  - apply andb_true_iff in H. destruct H as [A B]. rewrite (IH _ B), andb_true_r. rewrite forallb_forall in *. intros ct Hct. apply ct_ok_ext. apply A. exact Hct.
  - apply andb_true_iff in H. destruct H as [A B]. rewrite A, (IH _ B). reflexivity.
Qed.
Lemma down_ok_snoc_newrq rqs i r d : forall n, down_ok rqs n (d ++ [DNewRq i r]) = down_ok rqs n d && N.eqb i (n + N.of_nat (length (newrq_defs d))).
Proof.
  induction d as [|m t IH]; intros n; cbn [app].
  - cbn [down_ok newrq_defs flat_map length]. rewrite N.add_0_r, andb_true_r. reflexivity.
  - destruct m; cbn [down_ok]; rewrite ?IH; unfold newrq_defs; cbn [flat_map app length]; fold (newrq_defs t); rewrite ?andb_assoc; try reflexivity.
    f_equal. f_equal. lia.
Qed.

Lemma SP_newrq s r : SP x0 s no_pum [] -> negb (rq_is_mn r) || zero_res r = true ->
  let i := N.of_nat (length (c_rqs (core_of s))) in
  let s1 := broadcast s (DNewRq i r) in
  SP x0 (st_core s1 (with_rqs (core_of s1) (c_rqs (core_of s) ++ [r]) (c_queues (core_of s) ++ [empty_queue]))) no_pum [].
Proof.
  intros [H9 Hcs Hact H1 Hd Ht H3 H4 Hpres Hpum H5 H6 H7 R1 R2] Hr i s1.
  set (f := fun p => push_down p (DNewRq i r)).
  assert (Hf : forall p, p_id (f p) = p_id p) by reflexivity.
  pose proof (fun w q => find_map_proc_inv f (s_procs (fst s)) w q Hf) as Hfp.
  constructor; cbn [s1 fst snd core_of hq_of st_core with_core broadcast with_procs s_core s_hq s_procs with_rqs c_tasks c_rqs c_redirects] in *; try assumption.
  - apply map_proc_sorted; assumption.
  - intros w q x t Hq Hx HX. destruct (Hfp _ _ Hq) as (p & Hp & ->). unfold f. cbn [push_down p_up p_down].
    specialize (H1 w p x t Hp Hx HX). rewrite msgs_for_nil, !app_nil_r in *. rewrite ditems_app. cbn [ditems flat_map ditems_msg]. rewrite app_nil_r.
    change (local (push_down p (DNewRq i r)) x) with (local p x). exact H1.
  - intros w q Hq. destruct (Hfp _ _ Hq) as (p & Hp & ->). unfold f. cbn [push_down p_rqs p_down]. rewrite msgs_for_nil, app_nil_r.
    specialize (Hd _ _ Hp). specialize (Ht _ _ Hp). rewrite msgs_for_nil, app_nil_r in Hd, Ht.
    rewrite down_ok_snoc_newrq, (down_ok_ext _ r _ _ Hd). cbn [andb]. apply N.eqb_eq. unfold i. rewrite <- Ht, app_length. lia.
  - intros w q Hq. destruct (Hfp _ _ Hq) as (p & Hp & ->). unfold f. cbn [push_down p_rqs p_down]. rewrite msgs_for_nil, app_nil_r.
    specialize (Ht _ _ Hp). rewrite msgs_for_nil, app_nil_r in Ht. rewrite newrq_app. cbn [newrq_defs flat_map]. rewrite app_nil_r, app_assoc, Ht. reflexivity.
  - intros w q Hq. destruct (Hfp _ _ Hq) as (p & Hp & ->). destruct (H3 _ _ Hp) as [L1 L2 L3 L4 L5]. constructor; assumption.
  - intros w q x Hq Hx. destruct (Hfp _ _ Hq) as (p & Hp & ->). apply (H4 w p x Hp). destruct Hx as [Hx|[[]|[]]]. left.
    unfold proc_tids, f in *. cbn [push_down p_up p_down p_backlog p_running] in Hx. rewrite flat_map_app in Hx. cbn [flat_map dmsg_tids] in Hx. rewrite !app_nil_r in Hx. exact Hx.
  - intros w Hw. exfalso. apply Hw. reflexivity.
  - unfold mn_rqs_ok in *. cbn [with_rqs c_rqs]. rewrite forallb_app. apply andb_true_iff. split; [exact H5 | cbn [forallb]; rewrite Hr; reflexivity].
  - intros x t Hx HX. specialize (H6 _ _ Hx HX). unfold mn_task_ok in *. cbn [with_rqs c_rqs]. change (core_of s) with (s_core (fst s)).
    assert (Hn : forall v, match nth_error (c_rqs (s_core (fst s))) (N.to_nat (t_rq t)) with Some r0 => v r0 | None => false end = true ->
                 match nth_error (c_rqs (s_core (fst s)) ++ [r]) (N.to_nat (t_rq t)) with Some r0 => v r0 | None => false end = true).
    { intros v Hv. destruct (nth_error (c_rqs (s_core (fst s))) (N.to_nat (t_rq t))) as [r0|] eqn:E; [|discriminate Hv].
      rewrite nth_error_app1; [rewrite E; exact Hv | apply nth_error_Some; congruence]. }
    destruct (t_state t); try exact H6; apply Hn; exact H6.
Qed.

Lemma get_or_create_rq_SP s r : SP x0 s no_pum [] -> negb (rq_is_mn r) || zero_res r = true ->
  SP x0 (fst (get_or_create_rq s r)) no_pum [] /\ hq_of (fst (get_or_create_rq s r)) = hq_of s /\
  c_tasks (core_of (fst (get_or_create_rq s r))) = c_tasks (core_of s) /\
  (forall w p', find_proc (s_procs (fst (fst (get_or_create_rq s r)))) w = Some p' ->
     exists p, find_proc (s_procs (fst s)) w = Some p /\ proc_tids p' = proc_tids p).
Proof.
  intros HS Hr. unfold get_or_create_rq. destruct (rq_index (c_rqs (core_of s)) r 0) as [i|].
  - cbn [fst]. split; [exact HS|]. split; [reflexivity|]. split; [reflexivity|]. intros w p' Hp'. eauto.
  - cbn [fst]. split; [apply SP_newrq; assumption|]. split; [reflexivity|]. split; [reflexivity|].
    intros w p' Hp'. cbn [st_core broadcast fst with_core with_procs s_procs] in Hp'.
    rewrite (find_map_proc (fun p => push_down p (DNewRq (N.of_nat (length (c_rqs (core_of s)))) r)) _ _ (fun _ => eq_refl)) in Hp'.
    destruct (find_proc (s_procs (fst s)) w) as [p|]; [|discriminate]. inversion Hp'; subst p'. exists p. split; [reflexivity|].
    unfold proc_tids. cbn [push_down p_up p_down p_backlog p_running]. rewrite flat_map_app. cbn [flat_map dmsg_tids]. rewrite !app_nil_r. reflexivity.
Qed.

Lemma absent_word p x : ~ In x (proc_tids p) -> uitems x (p_up p) = [] /\ local p x = LNone /\ ditems x (p_down p) = [].
Proof.
  unfold proc_tids. rewrite !in_app_iff. intros Hn. split; [|split].
  - assert (Hu : ~ In x (flat_map umsg_tids (p_up p))) by tauto. clear Hn. induction (p_up p) as [|m r IH]; [reflexivity|].
    cbn [flat_map] in Hu. rewrite in_app_iff in Hu. rewrite uitems_cons, IH by tauto. rewrite app_nil_r.
    assert (Hm : ~ In x (umsg_tids m)) by tauto. clear -Hm. destruct m as [us|ids]; cbn [uitems_msg umsg_tids] in *.
    + induction us as [|u t IH]; [reflexivity|]. cbn [flat_map] in *. rewrite in_app_iff in Hm. rewrite IH by tauto. rewrite app_nil_r.
      destruct u; cbn [uitem_of wupdate_tids] in *; try reflexivity; apply sel_other; intros ->; apply Hm; left; left; reflexivity.
    + induction ids as [|h t IH]; [reflexivity|]. cbn [flat_map In] in *. rewrite sel_other by (intros ->; apply Hm; auto). apply IH. tauto.
  - assert (Hb : ~ In x (bl_tids (p_backlog p))) by (unfold bl_tids; tauto). assert (Hr : ~ In x (map fst (p_running p))) by tauto.
    unfold local. rewrite (proj2 (run_find_none _ _) Hr). destruct (bl_count x (p_backlog p)) eqn:E; [reflexivity|].
    exfalso. apply Hb. apply bl_count_pos. lia.
  - apply ditems_notin. tauto.
Qed.

Lemma register_deps_CF X deps : forall c id kept count c' kept' count',
  register_deps c id deps kept count = (c', kept', count') -> CF X c c'.
Proof.
  induction deps as [|d r IH]; cbn [register_deps]; intros c id kept count c' kept' count' H; [inversion H; subst; apply CF_refl|].
  destruct (find_task (c_tasks c) d) as [dep|] eqn:Ef; [|eapply IH; exact H].
  eapply CF_trans; [|eapply IH; exact H]. destruct (find_task_some _ _ _ Ef) as [_ Eid].
  apply (CF_upd_task X c dep); [cbn [with_consumers t_id]; rewrite Eid; exact Ef | intros _; split; reflexivity].
Qed.

Definition fresh_task_ok (s : st) (x : tid) : Prop :=
  (forall w p, find_proc (s_procs (fst s)) w = Some p -> ~ In x (proc_tids p)) /\
  jv (hq_of s) x = Some (Some JW) /\ seen (hq_of s) x = true.

Lemma add_new_tasks_SP s ts : forall c ret c' ret',
  SP x0 (st_core s c) no_pum [] -> (forall t, In t ts -> fresh_task_ok s (t_id t)) ->
  add_new_tasks c ts ret = Ok (c', ret') -> SP x0 (st_core s c') no_pum [].
Proof.
  induction ts as [|t r IH]; cbn [add_new_tasks]; intros c ret c' ret' HS Hfr H; [inversion H; subst; exact HS|].
  destruct (register_deps c (t_id t) (t_deps t) [] 0) as [[c1 kept] count] eqn:Erd.
  apply bind_ok in H. destruct H as ([c2 ret1] & H2 & H).
  destruct (find_task (c_tasks c2) (t_id t)) as [old|] eqn:Enew; [discriminate|].
  set (t1 := with_state (with_deps t kept) (Waiting count)) in *.
  eapply (IH (upd_task c2 t1)); [| intros t0 H0; apply Hfr; right; exact H0 | exact H].
  assert (F12 : CF x0 c c2).
  { eapply CF_trans; [eapply register_deps_CF; exact Erd|]. destruct (N.eqb count 0).
    - apply bind_ok in H2. destruct H2 as ([qs ret2] & _ & H2). inversion H2; subst. apply CF_tasks_same; auto.
    - inversion H2; subst. apply CF_refl. }
  assert (S2 : SP x0 (st_core s c2) no_pum []).
  { apply (SP_ext _ (st_core (st_core s c) c2)); [|reflexivity|reflexivity|reflexivity]. apply (SP_CF x0 x0); [exact HS | exact F12 | auto]. }
  destruct (Hfr t (or_introl eq_refl)) as (Hocc & Hjv & Hseen).
  change (st_core s (upd_task c2 t1)) with (mkSys (upd_task c2 t1) (hq_of (st_core s c2)) (s_procs (fst (st_core s c2))), snd (st_core s c2)).
  apply (SP_gen2 (fun y => tid_eqb y (t_id t)) x0 x0 (st_core s c2) no_pum [] (upd_task c2 t1) _ _ no_pum [] S2).
  - unfold tsorted. cbn [upd_task with_tasks c_tasks]. apply set_task_sorted. exact (sp_cs _ _ _ _ S2).
  - reflexivity.
  - exact (sp_rvr _ _ _ _ S2).
  - intros y ty E Hy _. rewrite find_upd_task in Hy. cbn [t1 with_state with_deps t_id] in Hy. rewrite E in Hy. exists ty. repeat split; assumption.
  - intros w y _. split; reflexivity.
  - auto.
  - intros y ty Hy. rewrite find_upd_task in Hy. cbn [t1 with_state with_deps t_id] in Hy. destruct (tid_eqb y (t_id t)) eqn:E.
    + apply tid_eqb_eq in E. subst y. right. exact Hseen.
    + left. change (core_of (st_core s c2)) with c2. congruence.
  - intros w p y Hp [[]|[]].
  - intros w p Hp. split; [exact (sp_down _ _ _ _ S2 _ _ Hp) | reflexivity].
  - auto.
  - intros x tx E Hx _. apply tid_eqb_eq in E. subst x. rewrite find_upd_task in Hx. cbn [t1 with_state with_deps t_id] in Hx. rewrite tid_eqb_refl in Hx.
    inversion Hx; subst tx. clear Hx. change (hq_of (st_core s c2)) with (hq_of s).
    split; [left; exact Hjv|]. split; [reflexivity|]. split; [|split].
    + unfold jr_ok. cbn [t1 with_state with_deps t_state t_id]. rewrite job_running_jv, Hjv. reflexivity.
    + intros w rv E. cbn in E. discriminate.
    + intros w p Hp. cbn [t1 with_state t_state view_of no_pum app]. rewrite msgs_for_nil, app_nil_r.
      destruct (absent_word p (t_id t) (Hocc w p Hp)) as (A & B & C). rewrite A, B, C. reflexivity.
Qed.

Lemma on_new_tasks_SP s ts s' :
  SP x0 s no_pum [] -> (forall t, In t ts -> fresh_task_ok s (t_id t)) -> on_new_tasks s ts = Ok s' -> SP x0 s' no_pum [].
Proof.
  intros HS Hfr H. unfold on_new_tasks in H. destruct ts as [|t0 tr] eqn:Ets; [inversion H; subst; exact HS|]. rewrite <- Ets in *.
  apply bind_ok in H. destruct H as ([c' retracted] & H1 & H). apply bind_ok in H. destruct H as (s1 & H2 & H). inversion H; subst s'.
  apply SP_ask. eapply process_retracted_SP; [|exact H2].
  eapply add_new_tasks_SP; [| exact Hfr | exact H1]. eapply SP_ext; [exact HS | | |]; reflexivity.
Qed.

Lemma new_tasks_tail s4 jid site j j' ids' ts s6 :
  SP x0 s4 no_pum [] ->
  hq_get_job s4 jid site = Ok j -> attach_ids j ids' = Ok j' ->
  (forall t, In t ts -> fst (t_id t) = jid /\ In (snd (t_id t)) ids') ->
  jid < h_counter (hq_of s4) ->
  (forall i, In i ids' -> forall w p, find_proc (s_procs (fst s4)) w = Some p -> ~ In (jid, i) (proc_tids p)) ->
  on_new_tasks (hq_set_job s4 j') ts = Ok s6 -> SP x0 s6 no_pum [].
Proof.
  intros HS Hj Ha Hts Hlt Hocc H.
  destruct (jt_get _ _ _ _ Hj) as [Ej Eid]. destruct (attach_ids_find _ _ _ Ha) as [Eid' Hfind].
  pose proof (attach_ids_fresh _ _ _ Ha) as Hfresh.
  assert (Hjv : forall y, jv (hq_of (hq_set_job s4 j')) y = if N.eqb (fst y) jid then Some (if n_mem (snd y) ids' then Some JW else jt_find (j_tasks j) (snd y)) else jv (hq_of s4) y).
  { intros y. rewrite !jv_jt, jt_set_job, Eid', Eid. destruct (N.eqb (fst y) jid); [cbn [option_map]; rewrite Hfind; reflexivity | reflexivity]. }
  assert (Hjv4 : forall y, fst y = jid -> jv (hq_of s4) y = Some (jt_find (j_tasks j) (snd y))).
  { intros y E. rewrite jv_jt, E, Ej. reflexivity. }
  assert (S5 : SP x0 (hq_set_job s4 j') no_pum []).
  { apply (SP_ext _ (mkSys (core_of s4) (hq_of (hq_set_job s4 j')) (s_procs (fst s4)), snd s4)); [|reflexivity|reflexivity|reflexivity].
    apply SP_hq; [exact HS | |].
    - intros y t Hy _. rewrite Hjv. destruct (N.eqb (fst y) jid) eqn:E; [|reflexivity]. apply N.eqb_eq in E.
      pose proof (sp_act _ _ _ _ HS _ _ Hy eq_refl) as A. rewrite (Hjv4 y E) in A |- *.
      destruct (n_mem (snd y) ids') eqn:M; [|reflexivity]. apply n_mem_In in M. rewrite (Hfresh _ M) in A. destruct A as [A|A]; discriminate.
    - intros y Hy. rewrite seen_jv in *. change (h_counter (hq_of (hq_set_job s4 j'))) with (h_counter (hq_of s4)).
      apply andb_true_iff in Hy. destruct Hy as [Y1 Y2]. rewrite Y1. cbn [andb]. rewrite Hjv.
      destruct (N.eqb (fst y) jid) eqn:E; [|exact Y2]. apply N.eqb_eq in E. rewrite (Hjv4 y E) in Y2.
      destruct (n_mem (snd y) ids'); [reflexivity | exact Y2]. }
  eapply on_new_tasks_SP; [exact S5 | | exact H].
  intros t Ht. destruct (Hts t Ht) as [E1 E2]. assert (Ex : t_id t = (jid, snd (t_id t))) by (destruct (t_id t); cbn in *; subst; reflexivity).
  split; [|split].
  - intros w p Hp. rewrite Ex. apply (Hocc _ E2 w p). exact Hp.
  - rewrite Hjv, E1, N.eqb_refl. apply n_mem_In in E2. rewrite E2. reflexivity.
  - rewrite seen_jv. change (h_counter (hq_of (hq_set_job s4 j'))) with (h_counter (hq_of s4)). rewrite E1. apply N.ltb_lt in Hlt. rewrite Hlt. cbn [andb].
    rewrite Hjv, E1, N.eqb_refl. apply n_mem_In in E2. rewrite E2. reflexivity.
Qed.

Lemma SP_new_job s o jb :
  PROTO s -> UH s -> j_id jb = h_counter (s_hq s) ->
  SP x0 (mkSys (s_core s) (mkHq (set_job (h_jobs (s_hq s)) jb) (h_counter (s_hq s) + 1)) (s_procs s), o) no_pum [].
Proof.
  intros HP HU Eid. destruct HU as [Hcs Hpa]. pose proof (SP_init s o HP Hcs Hpa) as S0.
  apply (SP_hq x0 (s, o) no_pum [] _ o S0).
  - intros y t Hy _. pose proof (present_lt _ _ _ (conj Hcs Hpa) Hy) as Hlt. change (hq_of (s, o)) with (s_hq s). unfold jv. cbn [h_jobs]. rewrite find_job_set, Eid.
    destruct (N.eqb (fst y) (h_counter (s_hq s))) eqn:E; [apply N.eqb_eq in E; rewrite E in Hlt; exfalso; exact (N.lt_irrefl _ Hlt) | reflexivity].
  - intros y Hy. change (hq_of (s, o)) with (s_hq s) in *. unfold seen in *. cbn [h_jobs h_counter] in *. apply andb_true_iff in Hy. destruct Hy as [Ha Hb]. apply N.ltb_lt in Ha.
    rewrite find_job_set, Eid. destruct (N.eqb (fst y) (h_counter (s_hq s))) eqn:E; [apply N.eqb_eq in E; rewrite E in Ha; exfalso; exact (N.lt_irrefl _ Ha)|].
    rewrite Hb, andb_true_r. apply N.ltb_lt. apply N.lt_lt_succ_r in Ha. rewrite N.add_1_r. exact Ha.
Qed.

Lemma not_seen_no_occ s x : PROTO s -> seen (s_hq s) x = false -> forall w p, find_proc (s_procs s) w = Some p -> ~ In x (proc_tids p).
Proof. intros HP Hs w p Hp Hin. rewrite (pr_seen _ HP _ _ _ Hp Hin) in Hs. discriminate. Qed.

(** [s3]: the job [jid] exists or has just been created; [s4]: after the request classes have been
    looked up or announced. *)
Definition submit_ready (s : sys) (s3 : st) (jid : N) : Prop :=
  SP x0 s3 no_pum [] /\ s_procs (fst s3) = s_procs s /\ jid < h_counter (hq_of s3) /\
  (forall jx, find_job (h_jobs (hq_of s3)) jid = Some jx -> forall i, jt_find (j_tasks jx) i = None -> seen (s_hq s) (jid, i) = false).

Lemma submit_ready_old s jid jb outs :
  PROTO s -> UH s -> (forall jb, In jb (h_jobs (s_hq s)) -> j_id jb < h_counter (s_hq s)) ->
  find_job (h_jobs (s_hq s)) jid = Some jb -> submit_ready s (s, outs) jid.
Proof.
  intros HP [Hcs Hpa] Hfr Ef. split; [apply SP_init; assumption|]. split; [reflexivity|]. split.
  - pose proof (Hfr _ (find_job_in _ _ _ Ef)) as Hlt. rewrite (find_job_id _ _ _ Ef) in Hlt. exact Hlt.
  - intros jx Hjx i Hi. unfold hq_of in Hjx. cbn [fst] in Hjx. rewrite Ef in Hjx. injection Hjx as <-. unfold seen. cbn [fst snd]. rewrite Ef, Hi. apply andb_false_r.
Qed.

Lemma submit_ready_new s mf outs : PROTO s -> UH s ->
  submit_ready s (mkSys (s_core s) (mkHq (set_job (h_jobs (s_hq s)) (mkJob (h_counter (s_hq s)) false [] 0 0 0 0 0 false mf)) (h_counter (s_hq s) + 1)) (s_procs s), outs)
               (h_counter (s_hq s)).
Proof.
  intros HP HU. split; [exact (SP_new_job s outs (mkJob (h_counter (s_hq s)) false [] 0 0 0 0 0 false mf) HP HU eq_refl)|]. split; [reflexivity|]. split; [cbn; lia|].
  intros jx _ i _. unfold seen. cbn [fst]. rewrite N.ltb_irrefl. reflexivity.
Qed.

Lemma submit_tail s s3 s4 jid j j' ids' ts s6 :
  PROTO s -> submit_ready s s3 jid -> SP x0 s4 no_pum [] -> hq_of s4 = hq_of s3 ->
  (forall w p', find_proc (s_procs (fst s4)) w = Some p' -> exists p, find_proc (s_procs (fst s3)) w = Some p /\ proc_tids p' = proc_tids p) ->
  hq_get_job s4 jid 222 = Ok j -> attach_ids j ids' = Ok j' ->
  (forall t, In t ts -> fst (t_id t) = jid /\ In (snd (t_id t)) ids') ->
  on_new_tasks (hq_set_job s4 j') ts = Ok s6 -> SP x0 s6 no_pum [].
Proof.
  intros HP (S3 & Ep3 & Hlt3 & Hns3) S4 Eh4 Hp4 Hj Ha Hts H6.
  apply (new_tasks_tail s4 jid 222 j j' ids' ts s6 S4 Hj Ha Hts); [rewrite Eh4; exact Hlt3 | | exact H6].
  (* the new ids have not been seen, so no process mentions them *)
  intros i Hi w p4 Hp4'. destruct (Hp4 _ _ Hp4') as (p & Hp & ->). rewrite Ep3 in Hp.
  apply (not_seen_no_occ s (jid, i) HP) with (w := w); [|exact Hp].
  unfold hq_get_job in Hj. unfold hq_of in Eh4. destruct (find_job (h_jobs (s_hq (fst s4))) jid) as [jx|] eqn:Ejx; [|discriminate]. injection Hj as ->.
  apply (Hns3 j); [unfold hq_of; rewrite <- Eh4; exact Ejx | eapply attach_ids_fresh; [exact Ha | exact Hi]].
Qed.

Lemma handle_submit_array_PROTO s jobsel ids entries rq prio cl tlim mf s' :
  PROTO s -> UH s -> (forall jb, In jb (h_jobs (s_hq s)) -> j_id jb < h_counter (s_hq s)) ->
  negb (rq_is_mn rq) || zero_res rq = true ->
  handle_submit_array (s, []) jobsel ids entries rq prio cl tlim mf = Ok s' -> PROTO (fst s').
Proof.
  intros HP HU Hfr Hrq H. unfold handle_submit_array in H.
  match type of H with (match ?x with Some _ => _ | None => _ end) = _ => destruct x end; [inversion H; subst; exact HP|].
  apply bind_ok in H. destruct H as ([acc s1] & Hr & H).
  destruct acc as [[[jid is_new] ids']|].
  - cbv zeta in H.
    match type of H with context [get_or_create_rq ?sx rq] => set (s3 := sx) in *; destruct (get_or_create_rq s3 rq) as [s4 rqi] eqn:Erq end.
    apply bind_ok in H. destruct H as (j & Hj & H). apply bind_ok in H. destruct H as (j' & Ha & H). apply bind_ok in H. destruct H as (s6 & H6 & H).
    assert (E6 : fst s' = fst s6) by (unfold submit_ok_resp in H; apply bind_ok in H; destruct H as (jx & _ & H); inversion H; reflexivity).
    rewrite E6. apply SP_final.
    assert (A3 : submit_ready s s3 jid).
    { destruct jobsel as [j0|].
      - unfold hq_jobs in Hr. cbn [fst] in Hr. destruct (find_job (h_jobs (s_hq s)) j0) as [jb|] eqn:Ef; [|inversion Hr].
        destruct (negb (j_open jb)); [inversion Hr|]. inversion Hr; subst jid is_new ids' s1. exact (submit_ready_old s j0 jb _ HP HU Hfr Ef).
      - inversion Hr; subst jid is_new ids' s1. exact (submit_ready_new s mf _ HP HU). }
    destruct (get_or_create_rq_SP s3 rq (proj1 A3) Hrq) as (S4 & Eh4 & _ & Hp4). rewrite Erq in S4, Eh4, Hp4. cbn [fst] in S4, Eh4, Hp4.
    eapply (submit_tail s s3 s4 jid j j' ids' _ s6 HP A3 S4 Eh4 Hp4 Hj Ha); [|exact H6].
    intros t Ht. apply in_map_iff in Ht. destruct Ht as (i & <- & Hi). cbn [fresh_task t_id fst snd]. split; [reflexivity|].
    destruct entries as [n|]; [eapply take_n_in; exact Hi | exact Hi].
  - assert (E1 : fst s1 = s).
    { destruct jobsel as [jid|]; [|inversion Hr]. unfold hq_jobs in Hr. cbn [fst] in Hr.
      destruct (find_job (h_jobs (s_hq s)) jid) as [jb|]; [|inversion Hr; subst; reflexivity].
      destruct (negb (j_open jb)); inversion Hr; subst; reflexivity. }
    assert (E2 : fst s' = fst s1).
    { destruct jobsel; [match type of H with (match ?x with Some _ => _ | None => _ end) = _ => destruct x end|];
        inversion H; subst; reflexivity. }
    rewrite E2, E1. exact HP.
Qed.

Lemma fold_rqs_SP rqs : forall s l s4 rqis,
  fold_left (fun acc r => let '(s, l) := acc in let '(s', i) := get_or_create_rq s r in (s', l ++ [i])) rqs (s, l) = (s4, rqis) ->
  SP x0 s no_pum [] -> (forall r, In r rqs -> negb (rq_is_mn r) || zero_res r = true) ->
  SP x0 s4 no_pum [] /\ hq_of s4 = hq_of s /\
  (forall w p', find_proc (s_procs (fst s4)) w = Some p' -> exists p, find_proc (s_procs (fst s)) w = Some p /\ proc_tids p' = proc_tids p).
Proof.
  induction rqs as [|r rest IH]; cbn [fold_left]; intros s l s4 rqis H HS Hok.
  - inversion H; subst. split; [exact HS|]. split; [reflexivity|]. intros w p' Hp'. eauto.
  - destruct (get_or_create_rq s r) as [s1 i] eqn:E.
    destruct (get_or_create_rq_SP s r HS (Hok r (or_introl eq_refl))) as (S1 & E1 & _ & P1). rewrite E in S1, E1, P1. cbn [fst] in S1, E1, P1.
    destruct (IH _ _ _ _ H S1 (fun r0 H0 => Hok r0 (or_intror H0))) as (S4 & E4 & P4).
    split; [exact S4|]. split; [congruence|]. intros w p' Hp'. destruct (P4 _ _ Hp') as (p1 & Hp1 & Et1). destruct (P1 _ _ Hp1) as (p & Hp & Et).
    exists p. split; [exact Hp | congruence].
Qed.

Lemma handle_submit_graph_PROTO s jobsel rqs ts mf s' :
  PROTO s -> UH s -> (forall jb, In jb (h_jobs (s_hq s)) -> j_id jb < h_counter (s_hq s)) ->
  (forall r, In r rqs -> negb (rq_is_mn r) || zero_res r = true) ->
  handle_submit_graph (s, []) jobsel rqs ts mf = Ok s' -> PROTO (fst s').
Proof.
  intros HP HU Hfr Hrq H. unfold handle_submit_graph in H.
  apply bind_ok in H. destruct H as (v1 & _ & H).
  match type of H with (match ?x with Some _ => _ | None => _ end) = _ => destruct x end; [inversion H; subst; exact HP|].
  apply bind_ok in H. destruct H as ([acc s1] & Hr & H).
  destruct acc as [[jid is_new]|].
  - cbv zeta in H.
    match type of H with context [fold_left ?f rqs (?sx, [])] => set (s3 := sx) in *; destruct (fold_left f rqs (s3, [])) as [s4 rqis] eqn:Efold end.
    apply bind_ok in H. destruct H as (j & Hj & H). apply bind_ok in H. destruct H as (j' & Ha & H).
    apply bind_ok in H. destruct H as (tasks & Hgt & H). apply bind_ok in H. destruct H as (s6 & H6 & H).
    assert (E6 : fst s' = fst s6) by (unfold submit_ok_resp in H; apply bind_ok in H; destruct H as (jx & _ & H); inversion H; reflexivity).
    rewrite E6. apply SP_final.
    assert (A3 : submit_ready s s3 jid).
    { destruct jobsel as [j0|].
      - unfold hq_jobs in Hr. cbn [fst] in Hr. destruct (find_job (h_jobs (s_hq s)) j0) as [jb|] eqn:Ef; [|inversion Hr].
        destruct (negb (j_open jb)); [inversion Hr|]. inversion Hr; subst jid is_new s1. exact (submit_ready_old s j0 jb _ HP HU Hfr Ef).
      - inversion Hr; subst jid is_new s1. exact (submit_ready_new s mf _ HP HU). }
    destruct (fold_rqs_SP _ _ _ _ _ Efold (proj1 A3) Hrq) as (S4 & Eh4 & Hp4).
    destruct (graph_tasks_spec _ _ _ _ Hgt) as [Hids _].
    apply (submit_tail s s3 s4 jid j j' (map gt_id ts) tasks s6 HP A3 S4 Eh4 Hp4 Hj Ha); [|exact H6].
    intros t Ht. assert (Hin : In (t_id t) (map t_id tasks)) by (apply in_map; exact Ht). rewrite Hids in Hin.
    apply in_map_iff in Hin. destruct Hin as (i & Ei & Hi). rewrite <- Ei. cbn [fst snd]. auto.
  - assert (E1 : fst s1 = s).
    { destruct jobsel as [jid|]; [|inversion Hr]. unfold hq_jobs in Hr. cbn [fst] in Hr.
      destruct (find_job (h_jobs (s_hq s)) jid) as [jb|]; [|inversion Hr; subst; reflexivity].
      destruct (negb (j_open jb)); inversion Hr; subst; reflexivity. }
    assert (E2 : s' = s1) by (inversion H; reflexivity). rewrite E2, E1. exact HP.
Qed.
