(** Protocol invariant, part 8: grouped pending messages, [process_retracted] as a transition of
    [SP], and the simple reactor functions ([task_running], [task_reject], [request_enabled]). *)
From HQ Require Import Base.Prelude Cluster.Types Cluster.Core Cluster.Reactor Cluster.Worker Cluster.Server Cluster.Sys Cluster.ProofsJob Cluster.ProofsMore Cluster.ProofsTerminal Cluster.ProofsStep Cluster.BijBase Cluster.BijHq Cluster.NoPanicU0 Cluster.NoPanicU1 Cluster.NoPanicU2 Cluster.NoPanicU6 Cluster.NoPanicU7.
From HQ Require Import Cluster.ModelFacts.
From Coq Require Import ZArith Lia Sorting.Sorted.
Local Open Scope N_scope.

Section Groups.
Context {A : Type}.
Variable mk : list A -> dmsg.

Definition pg (acc : list (wid * list A)) : list (wid * dmsg) := map (fun g => (fst g, mk (snd g))) acc.

Fixpoint glook (w : wid) (acc : list (wid * list A)) : option (list A) :=
  match acc with [] => None | (k, v) :: r => if N.eqb k w then Some v else glook w r end.

Lemma glook_none w acc : ~ In w (map fst acc) -> glook w acc = None.
Proof.
  induction acc as [|[k v] r IH]; cbn [glook map fst In]; [reflexivity|]. intros Hn.
  destruct (N.eqb k w) eqn:E; [apply N.eqb_eq in E; exfalso; apply Hn; auto | apply IH; intros X; apply Hn; auto].
Qed.

Lemma msgs_for_pg w acc : NoDup (map fst acc) ->
  msgs_for w (pg acc) = match glook w acc with Some l => [mk l] | None => [] end.
Proof.
  induction acc as [|[k v] r IH]; cbn [pg map fst glook]; intros Hn; [reflexivity|].
  inversion Hn as [|? ? Hni Hn']; subst. rewrite msgs_for_cons. cbn [fst snd]. fold (pg r).
  destruct (N.eqb k w) eqn:E.
  - apply N.eqb_eq in E. subst k. rewrite (IH Hn'), (glook_none _ _ Hni). reflexivity.
  - apply IH. exact Hn'.
Qed.

Lemma group_add_keys w (x : A) acc : map fst (group_add w x acc) = if in_dec N.eq_dec w (map fst acc) then map fst acc else map fst acc ++ [w].
Proof.
  induction acc as [|[k v] r IH]; cbn [group_add map fst]; [reflexivity|].
  destruct (N.eqb k w) eqn:E.
  - apply N.eqb_eq in E. subst k. cbn [map fst]. destruct (in_dec N.eq_dec w (w :: map fst r)) as [_|Hn]; [reflexivity | exfalso; apply Hn; left; reflexivity].
  - apply N.eqb_neq in E. cbn [map fst]. rewrite IH.
    destruct (in_dec N.eq_dec w (map fst r)) as [Hi|Hn]; destruct (in_dec N.eq_dec w (k :: map fst r)) as [Hi'|Hn']; try reflexivity.
    + exfalso. apply Hn'. right. exact Hi.
    + exfalso. destruct Hi' as [->|Hi']; [congruence | contradiction].
Qed.
Lemma group_add_nodup w (x : A) acc : NoDup (map fst acc) -> NoDup (map fst (group_add w x acc)).
Proof.
  intros Hn. rewrite group_add_keys. destruct (in_dec N.eq_dec w (map fst acc)) as [_|Hni]; [exact Hn|].
  clear -Hn Hni. induction (map fst acc) as [|h t IH]; cbn [app]; [constructor; [intros [] | constructor]|].
  inversion Hn as [|? ? Hh Ht]; subst. constructor.
  - rewrite in_app_iff. intros [H|[H|[]]]; [contradiction | subst; apply Hni; left; reflexivity].
  - apply IH; [exact Ht | intros H; apply Hni; right; exact H].
Qed.
Lemma glook_group_add w (x : A) acc w' :
  glook w' (group_add w x acc) = if N.eqb w w' then Some (match glook w acc with Some l => l | None => [] end ++ [x]) else glook w' acc.
Proof.
  induction acc as [|[k v] r IH]; cbn [group_add glook].
  - destruct (N.eqb w w'); reflexivity.
  - destruct (N.eqb k w) eqn:E1.
    + apply N.eqb_eq in E1. subst k. cbn [glook]. destruct (N.eqb w w'); reflexivity.
    + cbn [glook]. destruct (N.eqb k w') eqn:E2.
      * apply N.eqb_eq in E2. subst k. rewrite (N.eqb_sym w w'), E1. reflexivity.
      * exact IH.
Qed.
End Groups.

Definition pdr (acc : list (wid * list tid)) : list (wid * dmsg) := pg DRetract acc.

Lemma dret_snoc y l x : ditems_msg y (DRetract (l ++ [x])) = ditems_msg y (DRetract l) ++ sel x y IDRet.
Proof. cbn [ditems_msg]. rewrite flat_map_app. cbn [flat_map]. rewrite app_nil_r. reflexivity. Qed.

Lemma pdr_add_items acc w x w' y : NoDup (map fst acc) ->
  ditems y (msgs_for w' (pdr (group_add w x acc))) = ditems y (msgs_for w' (pdr acc)) ++ (if N.eqb w' w then sel x y IDRet else []).
Proof.
  intros Hn. unfold pdr. rewrite (msgs_for_pg DRetract w' _ (group_add_nodup w x acc Hn)), (msgs_for_pg DRetract w' _ Hn), glook_group_add.
  rewrite (N.eqb_sym w w'). destruct (N.eqb w' w) eqn:E; [|rewrite app_nil_r; reflexivity].
  apply N.eqb_eq in E. subst w'. destruct (glook w acc) as [l|]; cbn [ditems flat_map]; rewrite ?app_nil_r.
  - apply dret_snoc.
  - cbn [app ditems_msg flat_map]. rewrite app_nil_r. reflexivity.
Qed.

Lemma pdr_add_tids acc w x w' y : NoDup (map fst acc) ->
  In y (flat_map dmsg_tids (msgs_for w' (pdr (group_add w x acc)))) -> In y (flat_map dmsg_tids (msgs_for w' (pdr acc))) \/ y = x.
Proof.
  intros Hn. unfold pdr. rewrite (msgs_for_pg DRetract w' _ (group_add_nodup w x acc Hn)), (msgs_for_pg DRetract w' _ Hn), glook_group_add.
  destruct (N.eqb w w') eqn:E; [|auto]. apply N.eqb_eq in E. subst w'.
  destruct (glook w acc) as [l|]; cbn [flat_map dmsg_tids]; rewrite ?app_nil_r.
  - rewrite in_app_iff. cbn [In]. intros [H|[H|[]]]; auto.
  - cbn [app In]. intros [H|[]]; auto.
Qed.

Definition plain (m : dmsg) : Prop := match m with DRetract _ | DCancel _ => True | _ => False end.
Lemma down_ok_plain rqs ms : (forall m, In m ms -> plain m) -> forall d n, down_ok rqs n (d ++ ms) = down_ok rqs n d.
Proof.
  intros Hp. induction d as [|m r IH]; intros n; cbn [app].
  - induction ms as [|m r IH]; [reflexivity|]. pose proof (Hp m (or_introl eq_refl)) as Hm.
    destruct m; try destruct Hm; cbn [down_ok]; apply IH; intros m0 H0; apply Hp; right; exact H0.
  - destruct m; cbn [down_ok]; rewrite ?IH; reflexivity.
Qed.
Lemma newrq_plain ms : (forall m, In m ms -> plain m) -> newrq_defs ms = [].
Proof.
  induction ms as [|m r IH]; intros Hp; [reflexivity|]. pose proof (Hp m (or_introl eq_refl)) as Hm.
  unfold newrq_defs in *. cbn [flat_map]. destruct m; try destruct Hm; cbn [app]; apply IH; intros m0 H0; apply Hp; right; exact H0.
Qed.
Lemma pg_plain {A} (mk : list A -> dmsg) w acc : (forall l, plain (mk l)) -> forall m, In m (msgs_for w (pg mk acc)) -> plain m.
Proof.
  intros Hmk m Hm. unfold msgs_for, pg in Hm. apply in_map_iff in Hm. destruct Hm as ([k m0] & <- & Hin). apply filter_In in Hin.
  destruct Hin as [Hin _]. apply in_map_iff in Hin. destruct Hin as (g & Eg & _). inversion Eg; subst. apply Hmk.
Qed.

Lemma newrq_app a b : newrq_defs (a ++ b) = newrq_defs a ++ newrq_defs b.
Proof. unfold newrq_defs. apply flat_map_app. Qed.

Lemma find_upd_task c t' y : find_task (c_tasks (upd_task c t')) y = if tid_eqb y (t_id t') then Some t' else find_task (c_tasks c) y.
Proof. cbn [upd_task with_tasks c_tasks]. apply find_set_task. Qed.

Lemma upd_task_point c t' c1 : c_tasks c1 = c_tasks (upd_task c t') ->
  (forall y, find_task (c_tasks c1) y = if tid_eqb y (t_id t') then Some t' else find_task (c_tasks c) y) /\ (tsorted c -> tsorted c1).
Proof. intros E. unfold tsorted. rewrite E. split; [intros y; apply find_upd_task | apply set_task_sorted]. Qed.

Lemma retract_states_SP X s pum ids : forall c acc c' acc',
  SP X (st_core s c) pum (pdr acc) -> NoDup (map fst acc) -> retract_states c ids acc = Ok (c', acc') ->
  SP X (st_core s c') pum (pdr acc') /\ NoDup (map fst acc').
Proof.
  induction ids as [|id r IH]; cbn [retract_states]; intros c acc c' acc' HS Hn H; [inversion H; subst; auto|].
  apply bind_ok in H. destruct H as (t & Ht & H). unfold get_task in Ht.
  destruct (find_task (c_tasks c) id) as [t0|] eqn:Ef; [|discriminate]. inversion Ht; subst t0. clear Ht.
  destruct (find_task_some _ _ _ Ef) as [_ Eid].
  destruct (t_state t) as [| |w| | | |] eqn:Est; try discriminate.
  apply bind_ok in H. destruct H as (wk & _ & H). apply bind_ok in H. destruct H as (wk' & _ & H).
  set (t' := with_state t (Retracting w)) in *.
  set (c1 := upd_worker (upd_task c t') wk') in *.
  destruct (upd_task_point c t' c1 eq_refl) as [Hfind Hcs1]. cbn [t' with_state t_id] in Hfind. rewrite Eid in Hfind.
  apply (IH c1 (group_add w id acc) c' acc'); [|apply group_add_nodup; exact Hn | exact H].
  change (st_core s c1) with (mkSys c1 (hq_of (st_core s c)) (s_procs (fst (st_core s c))), snd (st_core s c)).
  apply (SP_gen (fun y => tid_eqb y id) X X (st_core s c) pum (pdr acc) c1 _ _ pum (pdr (group_add w id acc)) HS).
  - exact (Hcs1 (sp_cs _ _ _ _ HS)).
  - reflexivity.
  - exact (sp_rvr _ _ _ _ HS).
  - intros y ty E Hy HX. rewrite Hfind, E in Hy. exists ty. repeat split; assumption.
  - intros w' y E. split; [reflexivity|]. rewrite (pdr_add_items _ _ _ _ _ Hn). apply tid_eqb_neq in E.
    destruct (N.eqb w' w); rewrite ?sel_other by congruence; rewrite app_nil_r; reflexivity.
  - auto.
  - intros y ty Hy. rewrite Hfind in Hy. destruct (tid_eqb y id) eqn:E; [apply tid_eqb_eq in E; subst y|];
      change (core_of (st_core s c)) with c; congruence.
  - intros w' p y Hp [Hy|Hy].
    + eapply (sp_seen _ _ _ _ HS); [exact Hp | right; left; exact Hy].
    + destruct (pdr_add_tids _ _ _ _ _ Hn Hy) as [Hy'| ->]; [eapply (sp_seen _ _ _ _ HS); [exact Hp | right; right; exact Hy']|].
      eapply (sp_pres _ _ _ _ HS). exact Ef.
  - intros w' p Hp. pose proof (sp_down _ _ _ _ HS _ _ Hp) as Hd.
    assert (P1 : forall m, In m (msgs_for w' (pdr (group_add w id acc))) -> plain m) by (apply pg_plain; intros; exact I).
    assert (P0 : forall m, In m (msgs_for w' (pdr acc)) -> plain m) by (apply pg_plain; intros; exact I).
    rewrite (down_ok_plain _ _ P0) in Hd. rewrite (down_ok_plain _ _ P1), (newrq_plain _ P1), (newrq_plain _ P0). split; [exact Hd | reflexivity].
  - auto.
  - intros x tx E Hx HX. apply tid_eqb_eq in E. subst x.
    rewrite Hfind, tid_eqb_refl in Hx. injection Hx as <-.
    change (core_of (st_core s c)) with c in *. change (hq_of (st_core s c)) with (hq_of s) in *.
    split; [exact (sp_act _ _ _ _ HS _ _ Ef HX)|]. split; [|split; [|split]].
    + pose proof (sp_mnt _ _ _ _ HS _ _ Ef HX) as M. unfold mn_task_ok in *. cbn [t' with_state t_state t_rq c1 upd_worker upd_task with_workers with_tasks c_rqs]. rewrite Est in M. exact M.
    + pose proof (sp_jr _ _ _ _ HS _ _ Ef HX) as J. unfold jr_ok in *. cbn [t' with_state t_state t_id]. rewrite Est in J. exact J.
    + intros w0 rv0 E0. cbn in E0. discriminate.
    + intros w' p Hp. pose proof (sp_words _ _ _ _ HS w' p id t Hp Ef HX) as Hl. rewrite Est in Hl.
      cbn [t' with_state t_state view_of] in Hl |- *. rewrite ditems_app, (pdr_add_items _ _ _ _ _ Hn), sel_same.
      rewrite (N.eqb_sym w' w). destruct (N.eqb w w') eqn:E.
      * rewrite app_assoc, <- ditems_app. apply LA_ret. exact Hl.
      * rewrite app_nil_r, <- ditems_app. exact Hl.
Qed.

Lemma SP_ext X s s' pum pd : SP X s pum pd -> core_of s' = core_of s -> hq_of s' = hq_of s -> s_procs (fst s') = s_procs (fst s) ->
  SP X s' pum pd.
Proof.
  intros [H9 Hcs Hact H1 Hd Ht H3 H4 Hpres Hpum H5 H6 H7 R1 R2] Ec Eh Ep.
  constructor; rewrite ?Ec, ?Eh, ?Ep; assumption.
Qed.

Lemma send_all_SP X pum msgs : forall s s', SP X s pum msgs -> send_all s msgs = Ok s' -> SP X s' pum [].
Proof.
  induction msgs as [|[w m] r IH]; cbn [send_all]; intros s s' HS H; [inversion H; subst; exact HS|].
  apply bind_ok in H. destruct H as (s1 & H1 & H). eapply IH; [|exact H]. eapply SP_send; eassumption.
Qed.

Lemma process_retracted_SP X s pum ret s' : SP X s pum [] -> process_retracted s ret = Ok s' -> SP X s' pum [].
Proof.
  intros HS H. unfold process_retracted in H. destruct ret as [|r0 rr] eqn:Er; [inversion H; subst; exact HS|]. rewrite <- Er in H.
  apply bind_ok in H. destruct H as ([c' groups] & H1 & H).
  destruct (retract_states_SP X s pum ret (core_of s) [] c' groups) as [S1 _]; [|constructor | exact H1|].
  - eapply SP_ext; [exact HS | | |]; reflexivity.
  - eapply send_all_SP; [exact S1 | exact H].
Qed.

Definition pum_us (w0 : wid) (us : list wupdate) : wid -> list umsg := fun w => if N.eqb w w0 then [UUpdates us] else [].

Lemma pum_us_items w0 u r w y : uitems y (pum_us w0 (u :: r) w) = (if N.eqb w w0 then uitem_of y u else []) ++ uitems y (pum_us w0 r w).
Proof. unfold pum_us. destruct (N.eqb w w0); [|reflexivity]. cbn [uitems flat_map uitems_msg]. rewrite !app_nil_r. reflexivity. Qed.
Lemma pum_us_tids w0 u r w y : In y (flat_map umsg_tids (pum_us w0 r w)) -> In y (flat_map umsg_tids (pum_us w0 (u :: r) w)).
Proof. unfold pum_us. destruct (N.eqb w w0); [|auto]. cbn [flat_map umsg_tids]. rewrite !app_nil_r, in_app_iff. auto. Qed.

Lemma SP_pum X X' s pum pd pum' :
  SP X s pum pd ->
  (forall y, X' y = false -> X y = false /\ forall w, uitems y (pum' w) = uitems y (pum w)) ->
  (forall w y, In y (flat_map umsg_tids (pum' w)) -> In y (flat_map umsg_tids (pum w))) ->
  (forall w, pum' w <> [] -> pum w <> []) ->
  SP X' s pum' pd.
Proof.
  intros HS Hv Ht Hpm.
  apply (SP_ext _ (mkSys (core_of s) (hq_of s) (s_procs (fst s)), snd s) s); [|reflexivity|reflexivity|reflexivity].
  apply (SP_gen X' X X' s pum pd (core_of s) (hq_of s) (snd s) pum' pd HS (sp_cs _ _ _ _ HS) eq_refl (sp_rvr _ _ _ _ HS)).
  - intros y t' _ Hy HX. exists t'. repeat split; try assumption. apply Hv, HX.
  - intros w y E. split; [apply Hv; exact E | reflexivity].
  - auto.
  - intros y t' Hy. congruence.
  - intros w p y Hp [Hy|Hy]; eapply (sp_seen _ _ _ _ HS); [exact Hp | right; left; apply Ht; exact Hy | exact Hp | right; right; exact Hy].
  - intros w p Hp. split; [exact (sp_down _ _ _ _ HS _ _ Hp) | reflexivity].
  - exact Hpm.
  - intros y t' E _ HX. congruence.
Qed.

Lemma SP_hide_pum X s pum pd pum' x :
  SP X s pum pd ->
  (forall w y, y <> x -> uitems y (pum' w) = uitems y (pum w)) ->
  (forall w y, In y (flat_map umsg_tids (pum' w)) -> In y (flat_map umsg_tids (pum w))) ->
  (forall w, pum' w <> [] -> pum w <> []) ->
  SP (xadd X x) s pum' pd.
Proof.
  intros HS Hi Ht Hpm. apply (SP_pum X (xadd X x) s pum pd pum' HS); [|exact Ht | exact Hpm].
  unfold xadd. intros y HX. apply orb_false_iff in HX. destruct HX as [E HX].
  split; [exact HX | intros w; apply Hi, tid_eqb_neq, E].
Qed.

Lemma SP_show X s pum pd x :
  SP (xadd X x) s pum pd -> X x = false ->
  (forall t, find_task (c_tasks (core_of s)) x = Some t ->
      jactive (jv (hq_of s) x) /\ mn_task_ok (core_of s) t = true /\ jr_ok (hq_of s) t = true /\ (forall w rv, t_state t = Assigned w rv -> rv = 0) /\
      forall w p, find_proc (s_procs (fst s)) w = Some p ->
        lang (view_of (t_state t) w (job_running (hq_of s) x)) (uitems x (pum w ++ p_up p)) (local p x) (ditems x (p_down p ++ msgs_for w pd)) = true) ->
  SP X s pum pd.
Proof.
  intros HS HX Hx.
  apply (SP_ext _ (mkSys (core_of s) (hq_of s) (s_procs (fst s)), snd s) s); [|reflexivity|reflexivity|reflexivity].
  apply (SP_gen (fun y => tid_eqb y x) (xadd X x) X s pum pd (core_of s) (hq_of s) (snd s) pum pd HS (sp_cs _ _ _ _ HS) eq_refl (sp_rvr _ _ _ _ HS)).
  - intros y t' E Hy HXy. exists t'. unfold xadd. rewrite E. repeat split; assumption.
  - intros w y E. split; reflexivity.
  - auto.
  - intros y t' Hy. congruence.
  - intros w p y Hp Hy. eapply (sp_seen _ _ _ _ HS); [exact Hp | right; exact Hy].
  - intros w p Hp. split; [exact (sp_down _ _ _ _ HS _ _ Hp) | reflexivity].
  - auto.
  - intros y t' E Hy _. apply tid_eqb_eq in E. subst y. apply Hx. exact Hy.
Qed.

Lemma SP_show_absent X s pum pd x : SP (xadd X x) s pum pd -> X x = false -> find_task (c_tasks (core_of s)) x = None -> SP X s pum pd.
Proof. intros HS HX Hn. apply (SP_show X s pum pd x HS HX). intros t Ht. congruence. Qed.

Lemma SP_drop_absent w0 u r s x :
  SP x0 s (pum_us w0 (u :: r)) [] -> (forall y, y <> x -> uitem_of y u = []) -> find_task (c_tasks (core_of s)) x = None ->
  SP x0 s (pum_us w0 r) [].
Proof.
  intros HS Hu Hn. apply (SP_show_absent x0 s _ _ x); [|reflexivity | exact Hn].
  apply (SP_hide_pum x0 s (pum_us w0 (u :: r)) [] _ x HS).
  - intros w y Hy. rewrite pum_us_items, (Hu y Hy). destruct (N.eqb w w0); reflexivity.
  - intros w y. apply pum_us_tids.
  - intros w. unfold pum_us. destruct (N.eqb w w0); [discriminate | auto].
Qed.

(** The head update [u] concerns task [id] only and is consumed: [t'] replaces [t] in the core, the
    job layer changes the view of [id] at most.  What [SP] says about [id] is shown explicitly. *)
Lemma SP_head_task X s w u r pd id t t' c' h' o' :
  SP X s (pum_us w (u :: r)) pd ->
  (forall y, y <> id -> uitem_of y u = []) ->
  find_task (c_tasks (core_of s)) id = Some t ->
  (forall y, find_task (c_tasks c') y = if tid_eqb y id then Some t' else find_task (c_tasks (core_of s)) y) ->
  tsorted c' -> c_rqs c' = c_rqs (core_of s) ->
  (forall r0, In r0 (c_redirects c') -> In r0 (c_redirects (core_of s))) ->
  hq_chg (eq id) (hq_of s) h' ->
  (X id = false ->
      jactive (jv h' id) /\ mn_task_ok c' t' = true /\ jr_ok h' t' = true /\ (forall w1 rv, t_state t' = Assigned w1 rv -> rv = 0) /\
      forall w' p, find_proc (s_procs (fst s)) w' = Some p ->
        lang (view_of (t_state t') w' (job_running h' id)) (uitems id (pum_us w r w' ++ p_up p)) (local p id)
             (ditems id (p_down p ++ msgs_for w' pd)) = true) ->
  SP X (mkSys c' h' (s_procs (fst s)), o') (pum_us w r) pd.
Proof.
  intros HS Hu Ef Hfind Hcs Erq Hred Hchg Hx.
  apply (SP_gen (fun y => tid_eqb y id) X X s (pum_us w (u :: r)) pd c' h' o' (pum_us w r) pd HS Hcs Erq).
  - intros r0 Hr0. apply (sp_rvr _ _ _ _ HS), Hred, Hr0.
  - intros y ty E Hy HX. rewrite Hfind, E in Hy. exists ty. repeat split; try assumption; try reflexivity.
    apply (proj2 Hchg y). intros <-. rewrite tid_eqb_refl in E. discriminate.
  - intros w' y E. split; [|reflexivity]. rewrite pum_us_items, Hu by (apply tid_eqb_neq; exact E).
    destruct (N.eqb w' w); reflexivity.
  - intros y. apply (hq_chg_seen _ _ _ _ Hchg).
  - intros y ty Hy. rewrite Hfind in Hy. destruct (tid_eqb y id) eqn:E; [apply tid_eqb_eq in E; subst y|]; congruence.
  - intros w' p y Hp [Hy|Hy]; eapply (sp_seen _ _ _ _ HS); [exact Hp | right; left; apply pum_us_tids; exact Hy | exact Hp | right; right; exact Hy].
  - intros w' p Hp. split; [rewrite Erq; exact (sp_down _ _ _ _ HS _ _ Hp) | reflexivity].
  - intros w'. unfold pum_us. destruct (N.eqb w' w); [discriminate | auto].
  - intros x tx E Hx' HX. apply tid_eqb_eq in E. subst x. rewrite Hfind, tid_eqb_refl in Hx'. injection Hx' as <-. exact (Hx HX).
Qed.

Lemma process_task_started_frame s t i ws rv s' : process_task_started s t i ws rv = Ok s' ->
  core_of s' = core_of s /\ s_procs (fst s') = s_procs (fst s).
Proof.
  unfold process_task_started. intros H. apply bind_ok in H. destruct H as (j & _ & H).
  destruct (jt_find (j_tasks j) (snd t)); [|discriminate]. inversion H; subst. split; reflexivity.
Qed.

Lemma task_running_steps s w id rv t s' b0 :
  find_task (c_tasks (core_of s)) id = Some t -> task_running s w id rv = Ok (s', b0) ->
  exists s1 ws st',
    process_task_started s1 id (t_inst t) ws rv = Ok s' /\ hq_of s1 = hq_of s /\ s_procs (fst s1) = s_procs (fst s) /\
    ((forall y, find_task (c_tasks (core_of s1)) y = if tid_eqb y id then Some (with_state t st') else find_task (c_tasks (core_of s)) y) /\
     (tsorted (core_of s) -> tsorted (core_of s1))) /\
    c_rqs (core_of s1) = c_rqs (core_of s) /\
    (forall r0, In r0 (c_redirects (core_of s1)) -> In r0 (c_redirects (core_of s))) /\
    ((st' = Running w rv /\ (t_state t = Assigned w rv \/ t_state t = Prefilled w \/ t_state t = Retracting w)) \/
     (st' = t_state t /\ exists ws0, t_state t = RunningMN (w :: ws0))).
Proof.
  intros Ef H. unfold task_running in H. cbv zeta in H. rewrite Ef in H.
  destruct (find_task_some _ _ _ Ef) as [_ Eid].
  apply bind_ok in H. destruct H as (rq & _ & H). apply bind_ok in H. destruct H as ([s1 ws] & H1 & H).
  apply bind_ok in H. destruct H as (s2 & H2 & H). injection H as <- <-.
  exists s1, ws.
  assert (Hpt : forall c1, c_tasks c1 = c_tasks (upd_task (core_of s) (with_state t (Running w rv))) ->
            (forall y, find_task (c_tasks c1) y = if tid_eqb y id then Some (with_state t (Running w rv)) else find_task (c_tasks (core_of s)) y) /\
            (tsorted (core_of s) -> tsorted c1)).
  { intros c1 E. rewrite <- Eid. exact (upd_task_point _ _ _ E). }
  destruct (t_state t) as [n|w1 rv1|w1|w1|w1 rv1|ws0|] eqn:Est; try discriminate.
  - destruct (negb (N.eqb w1 w)) eqn:E1; [discriminate|]. apply negb_false_iff, N.eqb_eq in E1. subst w1.
    destruct (negb (N.eqb rv1 rv)) eqn:E2; [discriminate|]. apply negb_false_iff, N.eqb_eq in E2. subst rv1.
    injection H1 as <- <-. exists (Running w rv).
    split; [exact H2|]. split; [reflexivity|]. split; [reflexivity|]. split; [apply Hpt; reflexivity|].
    split; [reflexivity|]. split; [auto|]. left. auto.
  - destruct (negb (N.eqb w1 w)) eqn:E1; [discriminate|]. apply negb_false_iff, N.eqb_eq in E1. subst w1.
    apply bind_ok in H1. destruct H1 as (wk & _ & H1). apply bind_ok in H1. destruct H1 as (wk' & _ & H1).
    apply bind_ok in H1. destruct H1 as (q & _ & H1). apply bind_ok in H1. destruct H1 as (q' & _ & H1).
    injection H1 as <- <-. exists (Running w rv).
    split; [exact H2|]. split; [reflexivity|]. split; [reflexivity|]. split; [apply Hpt; reflexivity|].
    split; [reflexivity|]. split; [auto|]. left. auto.
  - destruct (negb (N.eqb w1 w)) eqn:E1; [discriminate|]. apply negb_false_iff, N.eqb_eq in E1. subst w1.
    apply bind_ok in H1. destruct H1 as (c1 & Hr & H1). apply bind_ok in H1. destruct H1 as (wk & _ & H1).
    apply bind_ok in H1. destruct H1 as (wk' & _ & H1). injection H1 as <- <-. exists (Running w rv).
    destruct (try_remove_redirection_frame3 _ _ _ Hr) as (Et & Er & Hred).
    split; [exact H2|]. split; [reflexivity|]. split; [reflexivity|].
    split; [apply Hpt; cbn [core_of st_core with_core s_core fst upd_worker with_workers upd_task with_tasks c_tasks]; rewrite Et; reflexivity|].
    split; [exact Er|]. split; [exact Hred|]. left. auto.
  - destruct ws0 as [|w0 ws0]; [discriminate|]. destruct (N.eqb w0 w) eqn:E1; [|discriminate]. apply N.eqb_eq in E1. subst w0.
    injection H1 as <- <-. exists (RunningMN (w :: ws0)).
    split; [exact H2|]. split; [reflexivity|]. split; [reflexivity|]. split; [split; [|auto]|].
    + intros y. destruct (tid_eqb y id) eqn:E; [|reflexivity]. apply tid_eqb_eq in E. subst y. rewrite Ef. f_equal.
      destruct t; cbn in *; subst; reflexivity.
    + split; [reflexivity|]. split; [auto|]. right. eauto.
Qed.

Lemma task_running_SP s w id rv u r s' b0 :
  SP x0 s (pum_us w (u :: r)) [] -> (u = URunning id rv \/ u = URunningPrefilled id rv) ->
  task_running s w id rv = Ok (s', b0) -> SP x0 s' (pum_us w r) [].
Proof.
  intros HS Hu H.
  assert (Hit : exists b, forall y, uitem_of y u = sel id y (IRun b rv)) by (destruct Hu as [->| ->]; eexists; intros y; reflexivity).
  destruct Hit as (b & Hit).
  destruct (find_task (c_tasks (core_of s)) id) as [t|] eqn:Ef.
  2:{ unfold task_running in H. cbv zeta in H. rewrite Ef in H. injection H as <- _.
      eapply (SP_drop_absent w u r s id); [exact HS | | exact Ef]. intros y Hy. rewrite Hit. apply sel_other. congruence. }
  destruct (task_running_steps _ _ _ _ _ _ _ Ef H) as (s1 & ws & st' & Hst & Eh & Ep & [Hfind Hcs] & Erq & Hred & Hcase).
  pose proof (Hcs (sp_cs _ _ _ _ HS)) as Hcs1.
  (* the job layer: the task is running afterwards *)
  destruct (process_task_started_frame _ _ _ _ _ _ Hst) as [Ec2 Ep2].
  destruct (process_task_started_chg _ _ _ _ _ _ Hst) as [Hchg Hjr]. rewrite Eh in Hchg, Hjr.
  destruct (find_task_some _ _ _ Ef) as [_ Eid].
  assert (Hjr2 : jv (hq_of s') id = Some (Some JR)) by (apply Hjr; exact (sp_act _ _ _ _ HS _ _ Ef eq_refl)).
  assert (Hrun2 : job_running (hq_of s') id = true) by (rewrite job_running_jv, Hjr2; reflexivity).
  apply (SP_ext _ (mkSys (core_of s1) (hq_of s') (s_procs (fst s)), snd s') s'); [|rewrite Ec2; reflexivity | reflexivity | rewrite Ep2, Ep; reflexivity].
  apply (SP_head_task x0 s w u r [] id t (with_state t st') _ _ _ HS); try assumption.
  { intros y Hy. rewrite Hit. apply sel_other. congruence. }
  intros _.
  pose proof (sp_mnt _ _ _ _ HS _ _ Ef eq_refl) as Hm. pose proof (sp_jr _ _ _ _ HS _ _ Ef eq_refl) as Hj.
  split; [right; exact Hjr2|]. split; [|split; [|split]].
  - unfold mn_task_ok in *. cbn [with_state t_state t_rq]. rewrite Erq.
    destruct Hcase as [[-> [E|[E|E]]]|[-> _]]; try exact Hm; rewrite E in Hm; exact Hm.
  - unfold jr_ok. cbn [with_state t_state t_id]. rewrite Eid, Hrun2.
    destruct Hcase as [[-> _]|[-> (ws0 & ->)]]; reflexivity.
  - intros w1 rv1 E1. cbn [with_state t_state] in E1. destruct Hcase as [[-> _]|[-> (ws0 & E)]]; [discriminate | rewrite E in E1; discriminate].
  - (* the head item [IRun] takes the view of [w] from VA / VP / VT to VR (VM stays); other workers see VN *)
    intros w' p Hp. pose proof (sp_words _ _ _ _ HS w' p id t Hp Ef eq_refl) as Hl.
    rewrite uitems_app, pum_us_items, Hit, sel_same in Hl. rewrite uitems_app, Hrun2. cbn [with_state t_state].
    rewrite msgs_for_nil in *.
    destruct (N.eqb w' w) eqn:Ew.
    + apply N.eqb_eq in Ew. subst w'. cbn [app] in Hl. destruct (LS_run _ _ _ _ _ _ Hl) as [Hv Hl2].
      destruct Hcase as [[-> [E|[E|E]]]|[-> (ws0 & E)]]; rewrite E in Hl2; cbn [view_of] in Hl2 |- *; rewrite ?E; cbn [view_of]; rewrite N.eqb_refl in *; exact Hl2.
    + cbn [app] in Hl.
      assert (Ew' : N.eqb w w' = false) by (rewrite N.eqb_sym; exact Ew).
      destruct Hcase as [[-> [E|[E|E]]]|[-> (ws0 & E)]]; rewrite E in Hl; cbn [view_of] in Hl |- *; rewrite ?E; cbn [view_of]; rewrite Ew' in *; exact Hl.
Qed.

Lemma SP_drop_none w0 u r s : SP x0 s (pum_us w0 (u :: r)) [] -> (forall y, uitem_of y u = []) -> SP x0 s (pum_us w0 r) [].
Proof.
  intros HS Hu. apply (SP_pum x0 x0 s (pum_us w0 (u :: r)) [] _ HS).
  - intros y _. split; [reflexivity|]. intros w. rewrite pum_us_items, Hu. destruct (N.eqb w w0); reflexivity.
  - intros w y. apply pum_us_tids.
  - intros w. unfold pum_us. destruct (N.eqb w w0); [discriminate | auto].
Qed.

Lemma request_enabled_SP s w rq rv r s' : SP x0 s (pum_us w (UEnable rq rv :: r)) [] -> request_enabled s w rq rv = Ok s' -> SP x0 s' (pum_us w r) [].
Proof.
  intros HS H. unfold request_enabled in H. apply bind_ok in H. destruct H as (wk & _ & H). inversion H; subst s'.
  apply (SP_CF x0 x0); [|apply CF_tasks_same; auto | auto].
  apply (SP_drop_none w (UEnable rq rv) r s HS). intros y. reflexivity.
Qed.

Lemma pum_us_proc X s w us pd : SP X s (pum_us w us) pd -> exists p, find_proc (s_procs (fst s)) w = Some p.
Proof.
  intros HS. pose proof (sp_pum _ _ _ _ HS w) as H. unfold pum_us in H. rewrite N.eqb_refl in H.
  destruct (find_proc (s_procs (fst s)) w) as [p|]; [eauto | exfalso; apply H; [discriminate | reflexivity]].
Qed.

Lemma head_item X s w u r pd id t p :
  SP X s (pum_us w (u :: r)) pd -> find_task (c_tasks (core_of s)) id = Some t -> X id = false ->
  find_proc (s_procs (fst s)) w = Some p ->
  lang (view_of (t_state t) w (job_running (hq_of s) id)) (uitem_of id u ++ uitems id (pum_us w r w ++ p_up p)) (local p id)
       (ditems id (p_down p ++ msgs_for w pd)) = true.
Proof.
  intros HS Ef HX Hp. pose proof (sp_words _ _ _ _ HS w p id t Hp Ef HX) as Hl.
  rewrite uitems_app, pum_us_items, N.eqb_refl, <- app_assoc, <- uitems_app in Hl. exact Hl.
Qed.

Lemma view_VA st w jr rv : view_of st w jr = VA rv -> st = Assigned w rv.
Proof.
  destruct st as [n|w1 rv1|w1|w1|w1 rv1|[|w1 ws]|]; cbn [view_of]; try discriminate;
    destruct (N.eqb w1 w) eqn:E; try discriminate. intros H; inversion H; subst. apply N.eqb_eq in E. subst. reflexivity.
Qed.
Lemma view_VT st w jr : view_of st w jr = VT -> st = Retracting w.
Proof.
  destruct st as [n|w1 rv1|w1|w1|w1 rv1|[|w1 ws]|]; cbn [view_of]; try discriminate;
    destruct (N.eqb w1 w) eqn:E; try discriminate. intros _. apply N.eqb_eq in E. subst. reflexivity.
Qed.

Lemma task_reject_SP s w id rv0 r s' b0 :
  SP x0 s (pum_us w (UReject id rv0 :: r)) [] -> task_reject s w id rv0 = Ok (s', b0) -> SP x0 s' (pum_us w r) [].
Proof.
  intros HS H. unfold task_reject in H. cbv zeta in H.
  destruct (find_task (c_tasks (core_of s)) id) as [t|] eqn:Ef.
  2:{ inversion H; subst. eapply (SP_drop_absent w _ r s' id); [exact HS | | exact Ef]. intros y Hy. cbn [uitem_of]. apply sel_other. congruence. }
  destruct (find_task_some _ _ _ Ef) as [_ Eid].
  destruct (pum_us_proc _ _ _ _ _ HS) as (p & Hp).
  pose proof (head_item _ _ _ _ _ _ _ _ _ HS Ef eq_refl Hp) as Hl. cbn [uitem_of] in Hl. rewrite sel_same in Hl. cbn [app] in Hl.
  destruct (LS_rej _ _ _ _ _ Hl) as (rv & Ev & -> & Hl2). apply view_VA in Ev.
  apply bind_ok in H. destruct H as (wk & _ & H). apply bind_ok in H. destruct H as (rq & _ & H). apply bind_ok in H. destruct H as ([c1 cont] & Hr & H).
  rewrite Ev in Hr, H. rewrite N.eqb_refl in Hr. cbn [negb] in Hr. rewrite N.eqb_refl in Hr.
  apply bind_ok in Hr. destruct Hr as (wk' & _ & Hr). inversion Hr; subst c1 cont. clear Hr.
  apply bind_ok in H. destruct H as ([qs ret] & _ & H). apply bind_ok in H. destruct H as (s2 & Hpr & H). inversion H; subst s' b0. clear H.
  eapply process_retracted_SP; [|exact Hpr].
  set (t' := with_state t (Waiting 0)) in *.
  match type of Hpr with process_retracted (st_core s ?cx) _ = _ => set (c2 := cx) in * end.
  destruct (upd_task_point (core_of s) t' c2 eq_refl) as [Hfind Hcs2]. cbn [t' with_state t_id] in Hfind. rewrite Eid in Hfind.
  change (st_core s c2) with (mkSys c2 (hq_of s) (s_procs (fst s)), snd s).
  apply (SP_head_task x0 s w (UReject id (Some rv)) r [] id t t' c2 (hq_of s) (snd s) HS).
  - intros y Hy. cbn [uitem_of]. apply sel_other. congruence.
  - exact Ef.
  - exact Hfind.
  - exact (Hcs2 (sp_cs _ _ _ _ HS)).
  - reflexivity.
  - auto.
  - apply hq_chg_refl.
  - intros _.
    split; [exact (sp_act _ _ _ _ HS _ _ Ef eq_refl)|]. split; [reflexivity|]. split; [|split].
    + pose proof (sp_jr _ _ _ _ HS _ _ Ef eq_refl) as J. unfold jr_ok in *. rewrite Ev in J. cbn [t' with_state t_state t_id]. exact J.
    + intros w1 rv1 E1. cbn in E1. discriminate.
    + intros w' p' Hp'. cbn [t' with_state t_state view_of]. rewrite msgs_for_nil.
      pose proof (sp_words _ _ _ _ HS w' p' id t Hp' Ef eq_refl) as Hw. rewrite Ev, msgs_for_nil in Hw. cbn [view_of] in Hw.
      rewrite uitems_app, pum_us_items in Hw. cbn [uitem_of] in Hw. rewrite sel_same in Hw. rewrite uitems_app.
      destruct (N.eqb w' w) eqn:Ew.
      * apply N.eqb_eq in Ew. subst w'. rewrite N.eqb_refl in Hw. cbn [app] in Hw.
        destruct (LS_rej _ _ _ _ _ Hw) as (rv1 & _ & _ & Hw2). exact Hw2.
      * rewrite (N.eqb_sym w w'), Ew in Hw. cbn [app] in Hw. exact Hw.
Qed.
