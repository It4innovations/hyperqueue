(** C06 "instance ids strictly increase": the tasks across a scheduling round ([SI]: same
    instance id, and a state that is unchanged, or the task was waiting, or a prefilled task is
    being retracted; [SR] is the part about the states); [TT] for the remaining reactor functions,
    the server side, the loss of a worker and the client requests; [step_TT]: every operation of
    the system. *)
From HQ Require Import Base.Prelude Cluster.Types Cluster.Core Cluster.Reactor Cluster.Worker Cluster.Server Cluster.Sys Cluster.ProofsJob Cluster.ProofsMore Cluster.ProofsStep Cluster.BijBase Cluster.BijCore Cluster.BijHq Cluster.BijSt Cluster.BijReact Cluster.InvWBase Cluster.InvWX1 Cluster.NoPanicC2 Cluster.Monitors Cluster.RejHyp Cluster.ProofsTerminal Cluster.ProofsFinal Cluster.BijFinal Cluster.InvWX3 Cluster.ExecU1 Cluster.ExecU2.
From HQ Require Import Cluster.ReactSplit.
From HQ Require Import Cluster.StepShape.
From HQ Require Import Cluster.ModelFacts.
From Coq Require Import ZArith Lia Sorting.Sorted.
Local Open Scope N_scope.

Arguments N.add : simpl never.
Arguments N.sub : simpl never.

Definition srel (t t' : task) : Prop :=
  t_state t' = t_state t \/ is_waiting t = true \/ exists w, t_state t = Prefilled w /\ t_state t' = Retracting w.
Definition SR (c c' : core) : Prop :=
  forall t', In t' (c_tasks c') -> exists t, In t (c_tasks c) /\ t_id t = t_id t' /\ srel t t'.

Definition SI (c c' : core) : Prop :=
  forall t', In t' (c_tasks c') -> exists t, In t (c_tasks c) /\ t_id t = t_id t' /\ t_inst t' = t_inst t /\ srel t t'.

Lemma SI_SR c c' : SI c c' -> SR c c'.
Proof. intros H t' Hin. destruct (H t' Hin) as (t & Ht & Ei & _ & Hr). eauto. Qed.

Lemma SI_refl c : SI c c.
Proof. intros t H. exists t. repeat split; auto. left. reflexivity. Qed.
Lemma SI_trans c1 c2 c3 : SI c1 c2 -> SI c2 c3 -> SI c1 c3.
Proof.
  intros A B t3 H3. destruct (B t3 H3) as (t2 & H2 & E2 & I2 & R2). destruct (A t2 H2) as (t1 & H1 & E1 & I1 & R1).
  exists t1. split; [exact H1|]. split; [congruence|]. split; [congruence|]. unfold srel in *. unfold is_waiting in *.
  destruct R1 as [R1|[R1|(w & R1 & R1')]].
  - destruct R2 as [R2|[R2|(w & R2 & R2')]]; [left; congruence | right; left; rewrite <- R1; exact R2 | right; right; exists w; split; congruence].
  - right. left. exact R1.
  - destruct R2 as [R2|[R2|(w2 & R2 & R2')]]; [right; right; exists w; split; congruence | rewrite R1' in R2; discriminate | rewrite R1' in R2; discriminate].
Qed.
Lemma SI_tasks c c' : c_tasks c' = c_tasks c -> SI c c'.
Proof. intros E t H. rewrite E in H. exists t. repeat split; auto. left. reflexivity. Qed.
(** every write of a scheduling round replaces the state of a task *)
Lemma SI_set c c' t st : c_tasks c' = set_task (c_tasks c) (with_state t st) -> In t (c_tasks c) -> srel t (with_state t st) -> SI c c'.
Proof.
  intros E Hin Hr t' H. rewrite E in H. destruct (set_task_in _ _ _ H) as [->|Hin'].
  - exists t. auto.
  - exists t'. repeat split; auto. left. reflexivity.
Qed.

Ltac sr_set :=
  repeat match goal with H : get_task _ _ = Ok _ |- _ => apply get_task_find in H end;
  match goal with
  | H : find_task _ _ = Some ?t |- SI _ _ =>
      solve [ eapply (SI_set _ _ t);
              [ reflexivity | exact (find_in _ _ _ H)
              | unfold srel, is_waiting; cbn [t_state with_state];
                first [ left; reflexivity
                      | right; left; match goal with E : t_state _ = _ |- _ => rewrite E; reflexivity end
                      | right; right; eexists; split; [eassumption | reflexivity] ] ] ]
  end.

Lemma map_one_SI c m id w v rqres c' m' : map_one c m id w v rqres = Ok (c', m') -> SI c c'.
Proof.
  intros H. unfold map_one in H.
  apply bind_ok in H. destruct H as (wk & ?X & H). apply bind_ok in H. destruct H as (wk' & ?X & H).
  apply bind_ok in H. destruct H as (t & ?X & H).
  destruct (t_state t) as [n|w1 rv1|old|old|w1 rv1|wsx|] eqn:Est; try discriminate.
  - inversion H; subst. sr_set.
  - destruct (find_worker (c_workers (upd_worker c wk')) old) as [wo|] eqn:Hwo; [|discriminate].
    apply bind_ok in H. destruct H as (wo' & ?X & H).
    destruct (find_redirect _ id); [discriminate|]. inversion H; subst.
    sr_set.
  - destruct (find_redirect _ id) as [[ot vo]|].
    + inv_binds H. inversion H; subst. apply SI_tasks; reflexivity.
    + inversion H; subst. apply SI_tasks; reflexivity.
Qed.

Lemma map_sn_SI sol l : forall c m c' m', map_sn c m sol l = Ok (c', m') -> SI c c'.
Proof. apply (map_sn_lift SI SI_refl SI_trans); [|exact map_one_SI]. intros c qs. apply SI_tasks; reflexivity. Qed.

Lemma set_mn_workers_SI l : forall c id first c', set_mn_workers c id l first = Ok c' -> SI c c'.
Proof.
  induction l as [|w r IH]; cbn [set_mn_workers]; intros c id first c' H; [inversion H; subst; apply SI_refl|].
  apply bind_ok in H. destruct H as (wk & ?X & H). apply bind_ok in H. destruct H as (wk' & ?X & H).
  eapply SI_trans; [|eapply IH; exact H]. apply SI_tasks; reflexivity.
Qed.

Lemma map_mn_sets_SI sets : forall c rq mn c' mn', map_mn_sets c rq mn sets = Ok (c', mn') -> SI c c'.
Proof.
  induction sets as [|ws r IH]; cbn [map_mn_sets]; intros c rq mn c' mn' H; [inversion H; subst; apply SI_refl|].
  apply bind_ok in H. destruct H as (q & ?X & H). destruct (q_take_one q) as [[id q']|]; [|discriminate].
  apply bind_ok in H. destruct H as (c2 & H2 & H). apply bind_ok in H. destruct H as (t & Ht & H). apply get_task_find in Ht.
  destruct (t_state t) as [n| | | | | |] eqn:Est; try discriminate. destruct n; [|discriminate].
  eapply SI_trans; [|eapply IH; exact H].
  eapply SI_trans; [apply (SI_tasks c (with_queues c (set_queue (c_queues c) (N.to_nat rq) q'))); reflexivity|].
  eapply SI_trans; [eapply set_mn_workers_SI; exact H2|].
  sr_set.
Qed.

Lemma map_mn_SI l : forall c mn c' mn', map_mn c mn l = Ok (c', mn') -> SI c c'.
Proof. exact (map_mn_lift SI SI_refl SI_trans map_mn_sets_SI l). Qed.

Lemma prefill_mark_SI l : forall c w c', prefill_mark c w l = Ok c' -> SI c c'.
Proof.
  induction l as [|id r IH]; cbn [prefill_mark]; intros c w c' H; [inversion H; subst; apply SI_refl|].
  apply bind_ok in H. destruct H as (t & Ht & H). destruct (negb (is_waiting t)) eqn:Ew; [discriminate|]. apply negb_false_iff in Ew.
  apply bind_ok in H. destruct H as (wk & ?X & H). apply bind_ok in H. destruct H as (wk' & ?X & H).
  eapply SI_trans; [|eapply IH; exact H]. apply get_task_find in Ht.
  eapply (SI_set _ _ t); [reflexivity | exact (find_in _ _ _ Ht) | right; left; exact Ew].
Qed.

Lemma prefill_queues_SI n : forall c m worder qi top c' m', prefill_queues c m worder qi n top = Ok (c', m') -> SI c c'.
Proof. apply (prefill_queues_lift SI SI_refl SI_trans); [|exact prefill_mark_SI]. intros c qs. apply SI_tasks; reflexivity. Qed.

Lemma run_scheduling_SI s sol s' : run_scheduling s sol = Ok s' -> SI (core_of s) (core_of s').
Proof.
  unfold run_scheduling. intros H. destruct (negb (perm_of_set _ _)); [discriminate|].
  apply bind_ok in H. destruct H as ([c1 m1] & H1 & H).
  apply bind_ok in H. destruct H as ([c2 mn] & H2 & H).
  apply bind_ok in H. destruct H as ([c3 m3] & H3 & H).
  apply bind_ok in H. destruct H as (s1 & H4 & H).
  apply bind_ok in H. destruct H as (s2 & H5 & H). inversion H; subst s'.
  assert (R3 : SI c2 c3).
  { destruct (queues_top_priority (c_queues c2)); [|inversion H3; subst; apply SI_refl]. eapply prefill_queues_SI; exact H3. }
  assert (Ec : core_of s2 = c3) by (rewrite (send_mn_core _ _ _ H5), (send_mapping_core _ _ _ H4); reflexivity).
  eapply SI_trans; [eapply map_sn_SI; exact H1|]. eapply SI_trans; [eapply map_mn_SI; exact H2|]. eapply SI_trans; [exact R3|].
  apply SI_tasks. cbn. rewrite Ec. reflexivity.
Qed.

Lemma run_scheduling_SR s sol s' : run_scheduling s sol = Ok s' -> SR (core_of s) (core_of s').
Proof. intros H. exact (SI_SR _ _ (run_scheduling_SI _ _ _ H)). Qed.

Section Pass.
Variables T N : tid -> Prop.
Notation TT_refl := (TT_refl T N).
Notation TT_trans := (TT_trans T N).
Notation TT_tasks := (TT_tasks T N).
Notation retract_states_TT := (retract_states_TT T N).
Notation process_retracted_TT := (process_retracted_TT T N).
Notation task_failed_TT := (task_failed_TT T N).
Notation task_finished_TT := (task_finished_TT T N).
Notation on_cancel_tasks_TT := (on_cancel_tasks_TT T N).

Lemma task_running_TT s w id rv s' b : task_running s w id rv = Ok (s', b) -> TT T N (core_of s) (core_of s').
Proof.
  intros H. unfold task_running in H.
  destruct (find_task (c_tasks (core_of s)) id) as [t|] eqn:Eft; [|inversion H; subst; apply TT_refl].
  apply bind_ok in H. destruct H as (rq & ?X & H). apply bind_ok in H. destruct H as ([s1 ws] & H1 & H).
  apply bind_ok in H. destruct H as (s2 & H2 & H). inversion H; subst s' b.
  destruct (process_task_started_active _ _ _ _ _ _ H2) as [C2 _]. unfold core_same in C2. rewrite C2. clear H2 C2 H.
  destruct (t_state t) as [n|w1 rv1|w1|w1|w1 rv1|wsx|]; try discriminate.
  - destruct (negb (N.eqb w1 w)); [discriminate|]. destruct (negb (N.eqb rv1 rv)); [discriminate|]. inversion H1; subst s1 ws.
    tt_set.
  - destruct (negb (N.eqb w1 w)); [discriminate|]. inv_binds H1. inversion H1; subst s1 ws.
    tt_set.
  - destruct (negb (N.eqb w1 w)); [discriminate|].
    apply bind_ok in H1. destruct H1 as (c1 & Hc1 & H1). inv_binds H1. inversion H1; subst s1 ws.
    pose proof (try_remove_redirection_tasks _ _ _ Hc1) as Et1. cbn [c_tasks ask_scheduling core_of st_core with_core with_flag s_core fst] in Et1.
    eapply (TT_set T N _ _ (with_state t (Running w rv)) t); [cbn [c_tasks upd_worker upd_task with_workers with_tasks core_of st_core with_core s_core fst]; rewrite Et1; reflexivity
      | exact (find_in _ _ _ Eft) | reflexivity | cbn; lia | cbn; discriminate].
  - destruct wsx; [discriminate|]. destruct (N.eqb w0 w); [|discriminate]. inversion H1; subst s1 ws. apply TT_refl.
Qed.

Lemma requeue_TT s t c1 s' b : In t (c_tasks c1) -> T (t_id t) ->
  (do (qs, ret) <- add_ready_task (c_queues c1) (with_state t (Waiting 0));
   do s'' <- process_retracted (st_core s (with_queues (upd_task c1 (with_state t (Waiting 0))) qs)) ret;
   Ok (s'', true)) = Ok (s', b) -> TT T N c1 (core_of s').
Proof.
  intros Hin HT H. apply bind_ok in H. destruct H as ([qs ret] & ?X & H). apply bind_ok in H. destruct H as (s2 & Hr & H). inversion H; subst.
  eapply TT_trans; [|exact (process_retracted_TT _ _ _ Hr)].
  eapply (TT_set T N _ _ (with_state t (Waiting 0)) t); [reflexivity | exact Hin | reflexivity | cbn; lia | intros _ _; right; exact HT].
Qed.

Lemma task_reject_TT s w id rv s' b : T id -> task_reject s w id rv = Ok (s', b) -> TT T N (core_of s) (core_of s').
Proof.
  intros HT H. unfold task_reject in H. set (c := core_of s) in *.
  destruct (find_task (c_tasks c) id) as [t|] eqn:Eft; [|inversion H; subst; apply TT_refl].
  destruct (find_task_some _ _ _ Eft) as [Hin Hid]. rewrite <- Hid in HT.
  apply bind_ok in H. destruct H as (wk & ?X & H). cbv zeta in H.
  match type of H with context [upd_worker c ?k] => set (wk1 := k) in * end.
  apply bind_ok in H. destruct H as (rq & ?X & H).
  destruct (t_state t) as [n|w1 rv1|w1|w1|w1 rv1|wsx|];
    try (apply bind_ok in H; destruct H as (r0 & Hr0 & _); discriminate).
  - apply bind_ok in H. destruct H as ([c1 cont] & Hr & H).
    assert (Et1 : c_tasks c1 = c_tasks c).
    { destruct (negb (N.eqb w w1)); [inversion Hr; subst; reflexivity|].
      destruct rv as [v|]; [|inversion Hr; subst; reflexivity].
      destruct (N.eqb v rv1); [|inversion Hr; subst; reflexivity].
      inv_binds Hr. inversion Hr; subst. reflexivity. }
    eapply TT_trans; [apply (TT_tasks c c1 Et1)|]. eapply requeue_TT; [rewrite Et1; exact Hin | exact HT | exact H].
  - apply bind_ok in H. destruct H as ([c1 cont] & Hr & H).
    assert (Et1 : c_tasks c1 = c_tasks c) by (inv_binds Hr; inversion Hr; subst; reflexivity).
    eapply TT_trans; [apply (TT_tasks c c1 Et1)|]. eapply requeue_TT; [rewrite Et1; exact Hin | exact HT | exact H].
  - apply bind_ok in H. destruct H as ([c1 cont] & Hr & H).
    assert (E1 : c1 = upd_worker c wk1) by (destruct (negb (N.eqb w w1)); inversion Hr; reflexivity). subst c1.
    eapply TT_trans; [apply (TT_tasks c (upd_worker c wk1) eq_refl)|].
    destruct cont.
    + destruct (find_redirect (c_redirects (upd_worker c wk1)) id) as [[target rvt]|].
      * apply bind_ok in H. destruct H as (s1 & Hs1 & H). inversion H; subst s' b.
        rewrite (send_worker_core _ _ _ _ Hs1).
        eapply (TT_set T N _ _ (with_state t (Assigned target rvt)) t); [reflexivity | exact Hin | reflexivity | cbn; lia | cbn; discriminate].
      * eapply requeue_TT; [exact Hin | exact HT | exact H].
    + inversion H; subst. apply TT_refl.
Qed.

Lemma request_enabled_TT s w rq rv s' : request_enabled s w rq rv = Ok s' -> TT T N (core_of s) (core_of s').
Proof.
  intros H. unfold request_enabled in H. apply bind_ok in H. destruct H as (wk & ?X & H). inversion H; subst s'.
  apply TT_tasks; reflexivity.
Qed.

Lemma apply_updates_TT us : (forall x rv, In (UReject x rv) us -> T x) -> forall s w need s' need', apply_updates s w us need = Ok (s', need') -> TT T N (core_of s) (core_of s').
Proof.
  intros HT s w need s' need'. revert us s w need s' need' HT.
  apply (apply_updates_rel_inv (fun s s' => TT T N (core_of s) (core_of s')) (fun _ _ us => forall x rv, In (UReject x rv) us -> T x)).
  - intros s. apply TT_refl.
  - intros a b c. apply TT_trans.
  - intros s w u r s' n HT Hu. split; [|intros x rv Hx; eapply HT; right; exact Hx].
    destruct u; cbn [apply_one] in Hu.
    + eapply task_finished_TT; exact Hu.
    + apply bind_ok in Hu. destruct Hu as (sx & Hf & Hu). inversion Hu; subst. eapply task_failed_TT; exact Hf.
    + eapply task_running_TT; exact Hu.
    + eapply task_running_TT; exact Hu.
    + eapply task_reject_TT; [eapply HT; left; reflexivity | exact Hu].
    + apply bind_ok in Hu. destruct Hu as (sx & Hf & Hu). inversion Hu; subst. eapply request_enabled_TT; exact Hf.
Qed.

Lemma on_task_update_TT s w us s' : (forall x rv, In (UReject x rv) us -> T x) -> on_task_update s w us = Ok s' -> TT T N (core_of s) (core_of s').
Proof.
  intros HT H. unfold on_task_update in H. apply bind_ok in H. destruct H as ([s1 need] & Hu & H).
  pose proof (apply_updates_TT _ HT _ _ _ _ _ Hu) as R1.
  destruct (need && _); inversion H; subst; [|exact R1].
  eapply TT_trans; [exact R1|]. apply TT_tasks; reflexivity.
Qed.

Lemma retract_response_states_TT ids : (forall x, In x ids -> T x) -> forall c w acc c' acc', retract_response_states c w ids acc = (c', acc') -> TT T N c c'.
Proof.
  induction ids as [|id r IH]; cbn [retract_response_states]; intros HT c w acc c' acc' H; [inversion H; subst; apply TT_refl|].
  assert (HT' : forall x, In x r -> T x) by (intros x Hx; apply HT; right; exact Hx).
  destruct (find_task (c_tasks c) id) as [t|] eqn:Eft; [|eapply IH; [exact HT' | exact H]].
  destruct (find_task_some _ _ _ Eft) as [Hin Hid].
  destruct (t_state t); try (eapply IH; [exact HT' | exact H]).
  destruct (N.eqb w w0); [|eapply IH; [exact HT' | exact H]].
  destruct (find_redirect (c_redirects c) id) as [[target rv]|].
  - eapply TT_trans; [|eapply IH; [exact HT' | exact H]]. tt_set.
  - eapply TT_trans; [|eapply IH; [exact HT' | exact H]].
    eapply (TT_set T N _ _ (with_state t (Waiting 0)) t); [reflexivity | exact Hin | reflexivity | cbn; lia | intros _ _; right; cbn; rewrite Hid; apply HT; left; reflexivity].
Qed.

Lemma on_retract_response_TT s w ids s' : (forall x, In x ids -> T x) -> on_retract_response s w ids = Ok s' -> TT T N (core_of s) (core_of s').
Proof.
  unfold on_retract_response. intros HT H. destruct (retract_response_states _ w ids []) as [c' groups] eqn:E.
  apply bind_ok in H. destruct H as (s2 & H & H2).
  assert (X2 : TT T N (core_of s) (core_of s2)).
  { rewrite (send_redirected_core _ _ _ H). eapply retract_response_states_TT; [exact HT | exact E]. }
  destruct (retract_wakes _ _ _ _); inversion H2; subst s'; clear H2; [|exact X2].
  eapply TT_trans; [exact X2 | apply TT_tasks; reflexivity].
Qed.

Lemma on_new_worker_TT s rs g s' : on_new_worker s rs g = Ok s' -> TT T N (core_of s) (core_of s').
Proof. intros H. unfold on_new_worker in H. inversion H; subst s'. apply TT_tasks; reflexivity. Qed.

Lemma register_deps_TT deps : forall c id kept count c' kept' count', register_deps c id deps kept count = (c', kept', count') -> TT T N c c'.
Proof.
  induction deps as [|d r IH]; cbn [register_deps]; intros c id kept count c' kept' count' H; [inversion H; subst; apply TT_refl|].
  destruct (find_task (c_tasks c) d) as [dep|] eqn:Ef; [|eapply IH; exact H].
  eapply TT_trans; [|eapply IH; exact H].
  tt_set.
Qed.

Lemma add_new_tasks_TT c0 ts : (forall x, find_task (c_tasks c0) x = None -> N x) ->
  forall c ret c' ret', (forall x, find_task (c_tasks c0) x <> None -> find_task (c_tasks c) x <> None) ->
  add_new_tasks c ts ret = Ok (c', ret') -> TT T N c c'.
Proof.
  intros HN. induction ts as [|t r IH]; cbn [add_new_tasks]; intros c ret c' ret' Hdom H; [inversion H; subst; apply TT_refl|].
  destruct (register_deps c (t_id t) (t_deps t) [] 0) as [[c1 kept] count] eqn:Er.
  pose proof (register_deps_TT _ _ _ _ _ _ _ _ Er) as R1.
  destruct (NoPanicC2.register_deps_frame _ _ _ _ _ _ _ _ Er) as (_ & _ & _ & Est).
  apply bind_ok in H. destruct H as ([c2 rt] & H2 & H).
  assert (E2 : c_tasks c2 = c_tasks c1).
  { destruct (N.eqb count 0); [|inversion H2; subst; reflexivity].
    apply bind_ok in H2. destruct H2 as ([qs rt'] & ?X & H2). inversion H2; subst. reflexivity. }
  destruct (find_task (c_tasks c2) (t_id t)) eqn:Ef2; [discriminate|].
  assert (Hdom2 : forall x, find_task (c_tasks c0) x <> None -> find_task (c_tasks c2) x <> None).
  { intros x Hx. rewrite E2. intros E. apply (NoPanicC2.state_none _ _ (Est x)) in E. exact (Hdom x Hx E). }
  eapply TT_trans; [exact R1|]. eapply TT_trans; [apply (TT_tasks c1 c2 E2)|]. eapply TT_trans; [|eapply IH; [|exact H]].
  - eapply (TT_new T N _ _ (with_state (with_deps t kept) (Waiting count))); [reflexivity|]. cbn [t_id with_state with_deps]. apply HN.
    destruct (find_task (c_tasks c0) (t_id t)) eqn:E0; [|reflexivity]. exfalso. apply (Hdom2 (t_id t)); [congruence | exact Ef2].
  - intros x Hx. cbn [c_tasks upd_task with_tasks]. rewrite find_set_task. destruct (tid_eqb x _); [discriminate | apply Hdom2; exact Hx].
Qed.

Lemma on_new_tasks_TT s ts s' : (forall x, find_task (c_tasks (core_of s)) x = None -> N x) -> on_new_tasks s ts = Ok s' -> TT T N (core_of s) (core_of s').
Proof.
  intros HN H. unfold on_new_tasks in H. destruct ts as [|t0 tr] eqn:Et; [inversion H; subst; apply TT_refl|]. rewrite <- Et in *. clear Et.
  apply bind_ok in H. destruct H as ([c' retracted] & Ha & H). apply bind_ok in H. destruct H as (s1 & Hr & H). inversion H; subst s'.
  eapply TT_trans; [eapply (add_new_tasks_TT (core_of s)); [exact HN | intros x Hx; exact Hx | exact Ha]|].
  eapply TT_trans; [exact (process_retracted_TT (st_core s c') _ _ Hr)|]. apply TT_tasks; reflexivity.
Qed.

Lemma lost_prefilled_TT l : forall c c', lost_prefilled c l = Ok c' -> TT T N c c'.
Proof.
  induction l as [|id r IH]; cbn [lost_prefilled]; intros c c' H; [inversion H; subst; apply TT_refl|].
  apply bind_ok in H. destruct H as (t & ?X & H). apply bind_ok in H. destruct H as (q & ?X & H). apply bind_ok in H. destruct H as (q' & ?X & H).
  eapply TT_trans; [|eapply IH; exact H].
  tt_set.
Qed.

Lemma lost_assigned_TT l : forall c running ret c' running' ret', lost_assigned c l running ret = Ok (c', running', ret') -> TT T N c c'.
Proof.
  induction l as [|id r IH]; cbn [lost_assigned]; intros c running ret c' running' ret' H; [inversion H; subst; apply TT_refl|].
  apply bind_ok in H. destruct H as (t & Ht & H). apply get_task_find in Ht.
  apply bind_ok in H. destruct H as ([[c1 t1] running1] & Hr1 & H).
  apply bind_ok in H. destruct H as ([qs rt] & ?X & H).
  eapply TT_trans; [|eapply IH; exact H].
  assert (E1 : c_tasks c1 = c_tasks c /\ c_workers c1 = c_workers c /\ (t1 = t \/ t1 = with_state t (Waiting 0))).
  { destruct (t_state t); try (inversion Hr1; subst; auto; fail).
    destruct (find_redirect _ id); inversion Hr1; subst; auto. }
  destruct E1 as (Et & Ew & [-> | ->]).
  - eapply (TT_set T N c _ (with_inst t (t_inst t + 1)) t); [cbn [c_tasks upd_task with_tasks with_queues]; rewrite Et; reflexivity
      | exact (find_in _ _ _ Ht) | reflexivity | cbn; lia | cbn; intros E; lia].
  - eapply (TT_set T N c _ (with_inst (with_state t (Waiting 0)) (t_inst (with_state t (Waiting 0)) + 1)) t); [cbn [c_tasks upd_task with_tasks with_queues]; rewrite Et; reflexivity
      | exact (find_in _ _ _ Ht) | reflexivity | cbn; lia | cbn; intros E; lia].
Qed.

Lemma lost_fail_running_TT l : forall s reason s', lost_fail_running s reason l = Ok s' -> TT T N (core_of s) (core_of s').
Proof.
  apply (lost_fail_running_rel (fun s s' => TT T N (core_of s) (core_of s'))).
  - intros s. apply TT_refl.
  - intros a b c. apply TT_trans.
  - intros s id t Ef. tt_set.
  - intros s id k s' _ Hf. exact (task_failed_TT _ _ _ _ _ Hf).
Qed.

(** the instance ids stay and no task becomes waiting ([SI]) *)
Lemma run_scheduling_TT s sol s' : run_scheduling s sol = Ok s' -> TT T N (core_of s) (core_of s').
Proof.
  intros H t' Hin. destruct (run_scheduling_SI _ _ _ H t' Hin) as (t & Ht & Ei & En & Hr). left. exists t.
  split; [exact Ht|]. split; [exact Ei|]. split; [lia|]. intros _ Hw. left. unfold is_waiting in *.
  destruct Hr as [Es|[Hw0|(w & _ & Es)]]; [rewrite <- Es; exact Hw | exact Hw0 | rewrite Es in Hw; discriminate].
Qed.

Lemma lost_retracting_TT l : forall s w s', lost_retracting s w l = Ok s' -> TT T N (core_of s) (core_of s').
Proof.
  induction l as [|id r IH]; cbn [lost_retracting]; intros s w s' H; [inversion H; subst; apply TT_refl|].
  apply bind_ok in H. destruct H as (t & Ht & H). apply get_task_find in Ht.
  destruct (t_state t) as [n|w1 rv1|w1|w1|w1 rv1|wsx|] eqn:Est; try (eapply IH; exact H).
  destruct (N.eqb w w1); [|eapply IH; exact H]. cbv zeta in H.
  destruct (find_redirect (c_redirects (core_of s)) id) as [[target rv]|].
  - apply bind_ok in H. destruct H as (s1 & Hs1 & H). eapply TT_trans; [|eapply IH; exact H].
    rewrite (send_worker_core _ _ _ _ Hs1).
    eapply (TT_set T N _ _ (with_state (with_inst t (t_inst t + 1)) (Assigned target rv)) t); [reflexivity | exact (find_in _ _ _ Ht) | reflexivity | cbn; lia | cbn; intros E; lia].
  - eapply TT_trans; [|eapply IH; exact H].
    eapply (TT_set T N _ _ (with_state (with_inst t (t_inst t + 1)) (Waiting 0)) t); [reflexivity | exact (find_in _ _ _ Ht) | reflexivity | cbn; lia | cbn; intros E; lia].
Qed.

Lemma lost_sets_TT c0 w wk ao po c2 running retracted : lost_sets c0 w wk ao po = Ok (c2, running, retracted) -> TT T N c0 c2.
Proof.
  unfold lost_sets. intros Hr. destruct (w_assign wk) as [sa sp sf|mt root].
  - destruct (negb _); [discriminate|]. apply bind_ok in Hr. destruct Hr as (c1 & Hp & Hr).
    eapply TT_trans; [eapply lost_prefilled_TT; exact Hp | eapply lost_assigned_TT; exact Hr].
  - apply bind_ok in Hr. destruct Hr as (tk & Ht & Hr). apply get_task_find in Ht.
    destruct (t_state tk) as [n|w1 rv1|w1|w1|w1 rv1|ws|] eqn:Est; try discriminate. destruct ws as [|w0 rest] eqn:Ews; [discriminate|].
    destruct (N.eqb w w0).
    + apply bind_ok in Hr. destruct Hr as (c1 & Hc1 & Hr). apply bind_ok in Hr. destruct Hr as ([qs ret] & ?X & Hr).
      inversion Hr; subst c2 running retracted.
      pose proof (reset_mn_all_tasks _ _ _ Hc1) as T1.
      eapply (TT_set T N c0 _ (with_inst (with_state tk (Waiting 0)) (t_inst tk + 1)) tk);
        [cbn [c_tasks upd_task with_tasks with_queues]; rewrite T1; reflexivity | exact (find_in _ _ _ Ht) | reflexivity | cbn; lia | cbn; intros E; lia].
    + inversion Hr; subst c2 running retracted.
      eapply (TT_set T N c0 _ (with_state tk (RunningMN (filter (fun x => negb (N.eqb x w)) (w0 :: rest)))) tk);
        [reflexivity | exact (find_in _ _ _ Ht) | reflexivity | cbn; lia | cbn; discriminate].
Qed.

Lemma on_remove_worker_TT s w reason a p t s' : on_remove_worker s w reason a p t = Ok s' -> TT T N (core_of s) (core_of s').
Proof.
  apply (on_remove_worker_rel (fun s s' => TT T N (core_of s) (core_of s'))).
  - intros x y z. apply TT_trans.
  - intros s0 w0 wk ao po c2 running retracted _ Hr. eapply TT_trans; [|exact (lost_sets_TT _ _ _ _ _ _ _ _ Hr)]. apply TT_tasks; reflexivity.
  - intros l s0 w0 s1. apply lost_retracting_TT.
  - intros s0 r s1. apply process_retracted_TT.
  - intros s0 w0. apply TT_tasks; reflexivity.
  - intros s0 w0 running reason0 s1 H. destruct (process_worker_lost_active _ _ _ _ _ H) as [C _]. unfold core_same in C. rewrite C. apply TT_refl.
  - intros l s0 reason0 s1. apply lost_fail_running_TT.
  - intros s0. apply TT_tasks; reflexivity.
Qed.

Lemma handle_cancel_TT s jid s' : handle_cancel s jid = Ok s' -> TT T N (core_of s) (core_of s').
Proof.
  intros H. unfold handle_cancel in H.
  destruct (find_job (hq_jobs s) jid) as [j|]; [|inversion H; subst; apply TT_refl].
  destruct (non_finished_task_ids j) as [|i0 ir] eqn:En; [inversion H; subst; apply TT_refl|]. rewrite <- En in *. clear En.
  apply bind_ok in H. destruct H as (s1 & H1 & H). apply bind_ok in H. destruct H as (al & ?X & H).
  apply bind_ok in H. destruct H as (s2 & H2 & H). inversion H; subst s'.
  destruct (set_cancel_state_active _ _ _ _ H2) as [C2 _]. unfold core_same in C2.
  change (TT T N (core_of s) (core_of s2)). rewrite C2. eapply on_cancel_tasks_TT; exact H1.
Qed.

Lemma get_or_create_rq_TT s r : TT T N (core_of s) (core_of (fst (get_or_create_rq s r))).
Proof. unfold get_or_create_rq. destruct (rq_index _ r 0); [apply TT_refl|]. apply TT_tasks; reflexivity. Qed.

Lemma submit_tail_TT s4 jid ids tasks s' : (forall x, find_task (c_tasks (core_of s4)) x = None -> N x) ->
  submit_tail s4 jid ids tasks = Ok s' -> TT T N (core_of s4) (core_of s').
Proof.
  unfold submit_tail. intros HN H. apply bind_ok in H. destruct H as (j & ?X & H). apply bind_ok in H. destruct H as (j' & ?X & H).
  apply bind_ok in H. destruct H as (s6 & H6 & H).
  pose proof (on_new_tasks_TT (hq_set_job s4 j') _ _ HN H6) as R6.
  unfold submit_ok_resp in H. apply bind_ok in H. destruct H as (jx & ?X & H). inversion H; subst. exact R6.
Qed.

Lemma fold_rqs_TT rqs : forall s l s4 rqis,
  fold_left (fun acc r => let '(s, l) := acc in let '(s', i) := get_or_create_rq s r in (s', l ++ [i])) rqs (s, l) = (s4, rqis) ->
  TT T N (core_of s) (core_of s4) /\ c_tasks (core_of s4) = c_tasks (core_of s).
Proof.
  induction rqs as [|r rest IH]; cbn [fold_left]; intros s l s4 rqis H; [inversion H; subst; split; [apply TT_refl | reflexivity]|].
  destruct (get_or_create_rq s r) as [s1 i] eqn:E.
  pose proof (get_or_create_rq_TT s r) as R1. rewrite E in R1. cbn [fst] in R1.
  pose proof (get_or_create_rq_tasks s r) as T1. rewrite E in T1. cbn [fst] in T1.
  destruct (IH _ _ _ _ H) as [R2 T2]. split; [eapply TT_trans; [exact R1 | exact R2] | congruence].
Qed.

Lemma handle_submit_array_TT s jobsel ids entries rq prio cl tlim mf s' : (forall x, find_task (c_tasks (core_of s)) x = None -> N x) ->
  handle_submit_array s jobsel ids entries rq prio cl tlim mf = Ok s' -> TT T N (core_of s) (core_of s').
Proof.
  intros HN H. destruct (handle_submit_array_spec _ _ _ _ _ _ _ _ _ _ H) as [(c & a & ->)|(jid & is_new & ids' & s4 & rqi & _ & _ & Erq & Ht)]; [apply TT_refl|].
  set (s3 := submit_job s jid is_new (N.of_nat (length ids')) mf) in *.
  pose proof (get_or_create_rq_TT s3 rq) as R4. pose proof (get_or_create_rq_tasks s3 rq) as T4. rewrite Erq in R4, T4. cbn [fst] in R4, T4.
  assert (E3 : core_of s3 = core_of s) by (unfold s3; destruct is_new; reflexivity).
  rewrite E3 in R4, T4. eapply TT_trans; [exact R4 | eapply submit_tail_TT; [rewrite T4; exact HN | exact Ht]].
Qed.

Lemma handle_submit_graph_TT s jobsel rqs ts mf s' : (forall x, find_task (c_tasks (core_of s)) x = None -> N x) ->
  handle_submit_graph s jobsel rqs ts mf = Ok s' -> TT T N (core_of s) (core_of s').
Proof.
  intros HN H. destruct (handle_submit_graph_spec _ _ _ _ _ _ H) as [(r & ->)|(jid & is_new & s4 & rqis & tasks & _ & Erq & _ & Ht)]; [apply TT_refl|].
  destruct (fold_rqs_TT _ _ _ _ _ Erq) as [R4 T4].
  assert (E3 : core_of (submit_job s jid is_new (N.of_nat (length ts)) mf) = core_of s) by (destruct is_new; reflexivity).
  rewrite E3 in R4, T4. eapply TT_trans; [exact R4 | eapply submit_tail_TT; [rewrite T4; exact HN | exact Ht]].
Qed.

End Pass.

Definition step_T (s : sys) (o : op) : tid -> Prop :=
  match o with
  | OpDUp w => match find_proc (s_procs s) w with
               | Some p => match p_up p with m :: _ => fun x => In x (gives [m]) | [] => fun _ => False end
               | None => fun _ => False
               end
  | _ => fun _ => False
  end.
Definition absent_in (s : sys) : tid -> Prop := fun x => find_task (c_tasks (s_core s)) x = None.

(** [step_T] depends on the operation; the guard [eq o] of [step_walk] hands it to each case *)
Theorem step_TT s o s' outs : step s o = Ok (s', outs) -> TT (step_T s o) (absent_in s) (s_core s) (s_core s').
Proof.
  intros H. set (R := fun a b : st => TT (step_T (fst a) o) (absent_in (fst a)) (core_of a) (core_of b)).
  refine (step_walk R (eq o) _ _ _ _ _ _ _ _ _ _ _ _ _ _ _ _ s o s' outs eq_refl H); unfold R; clear; cbn [fst core_of].
  - intros s rs g s' -> H. exact (on_new_worker_TT _ _ _ _ _ _ H).
  - intros s w reason a p t pw s' -> _ H. exact (on_remove_worker_TT _ _ _ _ _ _ _ _ _ H).
  - intros s o0 c a _. apply TT_refl.
  - intros s job ids entries rq prio cl tlim mf s' -> H. exact (handle_submit_array_TT _ _ (s, []) _ _ _ _ _ _ _ _ _ (fun x Hx => Hx) H).
  - intros s job rqs ts mf s' -> H. exact (handle_submit_graph_TT _ _ (s, []) _ _ _ _ _ (fun x Hx => Hx) H).
  - intros s mf s' -> H. unfold handle_open in H. inversion H; subst. apply TT_refl.
  - intros s j s' -> H. unfold handle_close in H. cbn in H. destruct (find_job _ j) as [jb|]; [|inversion H; subst; apply TT_refl].
    destruct (j_open jb); [|inversion H; subst; apply TT_refl].
    apply bind_ok in H. destruct H as (s1 & H1 & H). inversion H; subst. change (TT (fun _ => False) (absent_in s) (s_core s) (core_of s1)). rewrite (check_termination_core _ _ _ H1). apply TT_refl.
  - intros s j s' -> H. exact (handle_cancel_TT _ _ (s, []) _ _ H).
  - intros s j s' -> H. unfold handle_forget in H. cbn in H. destruct (find_job _ j) as [jb|]; [|inversion H; subst; apply TT_refl].
    apply bind_ok in H. destruct H as (na & _ & H). destruct (negb (j_open jb) && na); inversion H; subst; apply TT_refl.
  - intros s w p m rest s' -> Hp Eu H. cbn [step_T]. rewrite Hp, Eu. destruct m as [us|ids].
    + refine (on_task_update_TT _ _ _ _ _ _ _ H).
      intros x rv Hx. cbn [gives flat_map]. rewrite app_nil_r. unfold ugives. apply in_flat_map. exists (UReject x rv). split; [exact Hx | left; reflexivity].
    + refine (on_retract_response_TT _ _ _ _ _ _ _ H). intros x Hx. cbn [gives flat_map]. rewrite app_nil_r. exact Hx.
  - intros s sol s' -> _ H. exact (run_scheduling_TT _ _ (s, []) _ _ H).
  - intros s lj _ _. apply TT_refl.
  - intros s w order p m rest p' ls _ _ _ _. apply TT_refl.
  - intros s w t how p p' ls _ _ _. apply TT_refl.
  - intros s w t p _ _. apply TT_refl.
  - intros s _. apply TT_refl.
Qed.
