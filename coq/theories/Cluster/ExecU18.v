(** C06 "one live execution per task": what one event of a worker process does to its running set;
    the invariant [RU] - for every task, the number of processes running it plus the number of its
    copies is at most one - in every reachable state; [single_execution]. *)
From HQ Require Import Base.Prelude Cluster.Types Cluster.Core Cluster.Reactor Cluster.Worker Cluster.Server Cluster.Sys Cluster.Monitors Cluster.RejHyp Cluster.ProofsJob Cluster.ProofsMore Cluster.ProofsTerminal Cluster.ProofsStep Cluster.ProofsFinal Cluster.ProofsOnce Cluster.BijBase Cluster.BijCore Cluster.BijHq Cluster.BijSt Cluster.BijReact Cluster.BijFinal Cluster.InvWBase Cluster.InvDStep Cluster.InvBundle Cluster.InvProcsDef Cluster.NoPanicL0 Cluster.NoPanicU0 Cluster.NoPanicU1 Cluster.NoPanicU2 Cluster.NoPanicU6 Cluster.NoPanicU8 Cluster.NoPanicU11 Cluster.NoPanicU12 Cluster.NoPanicU20 Cluster.ProofsWorker Cluster.NoPanicU4 Cluster.ExecU1 Cluster.ExecU3 Cluster.ExecU5 Cluster.ExecU6 Cluster.ExecU9 Cluster.ExecU10 Cluster.ExecU13 Cluster.ExecU15.
From HQ Require Import Cluster.StepShape.
From HQ Require Import Cluster.ModelFacts.
From Coq Require Import ZArith Lia Sorting.Sorted.
Local Open Scope N_scope.

Lemma rn_set x l t v : (match run_find (run_set l t v) x with Some _ => 1 | None => 0 end <=
                        match run_find l x with Some _ => 1 | None => 0 end + (if tid_eqb t x then 1 else 0))%nat.
Proof.
  rewrite run_find_set. rewrite (tid_eqb_sym x t). destruct (tid_eqb t x); [destruct (run_find l x); lia | lia].
Qed.

Lemma try_start_rn q t rv pre alloc q1 u l st x : try_start_task q t rv pre alloc = (q1, u, l, st) ->
  (rn x q1 <= rn x q + lcnt x l)%nat.
Proof.
  unfold try_start_task, rn. destruct (tid_mem (wt_id t) (p_failnext q)); intros H; inversion H; subst; cbn [p_running wp_failnext wp_upd]; [lia|].
  rewrite lcnt_one. cbn [l_t]. apply rn_set.
Qed.

Lemma prefill_loop_rn fuel x : forall q rq rv alloc ups ls q' ups' ls' used,
  prefill_loop fuel q rq rv alloc ups ls = (q', ups', ls', used) -> (rn x q' + lcnt x ls <= rn x q + lcnt x ls')%nat.
Proof.
  induction fuel as [|k IH]; intros q rq rv alloc ups ls q' ups' ls' used H; cbn [prefill_loop] in H; [inversion H; subst; unfold rn; cbn; lia|].
  destruct (pop_last (bl_get (p_backlog q) rq)) as [[t rest]|]; [|inversion H; subst; unfold rn; cbn; lia].
  destruct (bl_has (p_backlog q) rq); [|inversion H; subst; unfold rn; cbn; lia].
  destruct (try_start_task (wp_backlog q (bl_set (p_backlog q) rq rest)) t rv true alloc) as [[[q1 u] l] started] eqn:Et.
  pose proof (try_start_rn _ _ _ _ _ _ _ _ _ x Et) as H1. change (rn x (wp_backlog q (bl_set (p_backlog q) rq rest))) with (rn x q) in H1.
  destruct started; [inversion H; subst; rewrite lcnt_app; lia|]. specialize (IH _ _ _ _ _ _ _ _ _ _ H). rewrite lcnt_app in IH. lia.
Qed.

Lemma compute_loop_rn ts x : forall q ups ls q' ups' ls', compute_loop q ts ups ls = Ok (q', ups', ls') ->
  (rn x q' + lcnt x ls <= rn x q + lcnt x ls')%nat.
Proof.
  induction ts as [|ct r IH]; intros q ups ls q' ups' ls' H; cbn [compute_loop] in H; [inversion H; subst; lia|].
  destruct (ct_rv ct) as [rv|].
  - apply bind_ok in H. destruct H as (rq & _ & H). destruct (negb (N.eqb rv 0)); [discriminate|].
    destruct (res_fits (p_free q) (rq_res rq)).
    + match type of H with context [try_start_task ?p0 ?t rv false ?a] => destruct (try_start_task p0 t rv false a) as [[[q1 u] l] started] eqn:Et end.
      pose proof (try_start_rn _ _ _ _ _ _ _ _ _ x Et) as H1. change (rn x (wp_free q (res_sub (p_free q) (rq_res rq)))) with (rn x q) in H1.
      destruct started.
      * specialize (IH _ _ _ _ _ _ H). rewrite lcnt_app in IH. lia.
      * match type of H with context [prefill_loop ?f q1 ?a ?b ?c ?d ?e] => destruct (prefill_loop f q1 a b c d e) as [[[q2 u2] l2] usd] eqn:Ep end.
        pose proof (prefill_loop_rn _ x _ _ _ _ _ _ _ _ _ _ Ep) as H2. rewrite lcnt_app in H2. specialize (IH _ _ _ _ _ _ H). lia.
    + specialize (IH _ _ _ _ _ _ H). exact IH.
  - specialize (IH _ _ _ _ _ _ H). exact IH.
Qed.

Lemma cancel_fold_rn ids x : forall q, rn x (fold_left cancel_task ids q) = rn x q.
Proof.
  induction ids as [|i r IH]; intros q; [reflexivity|]. cbn [fold_left]. rewrite IH. destruct (cancel_task_eff q i) as (_ & _ & _ & _ & E & _).
  unfold rn. rewrite E. reflexivity.
Qed.

Lemma pwm_rn p m order p' ls x : process_worker_message p m order = Ok (p', ls) -> (rn x p' <= rn x p + lcnt x ls)%nat.
Proof.
  intros H. destruct m as [ts|ids|ids|w0|w0|rq def|]; cbn [process_worker_message] in H.
  - apply bind_ok in H. destruct H as ([[p1 ups] ls1] & H1 & H). pose proof (compute_loop_rn _ x _ _ _ _ _ _ H1) as Hc. cbn [lcnt filter length] in Hc.
    destruct ups; inversion H; subst; [lia|]. change (rn x (send_up p1 (UUpdates (w :: ups)))) with (rn x p1). lia.
  - destruct (negb _); [discriminate|]. destruct (retract_from _ _ _ _) as [b out]. destruct ids; inversion H; subst; unfold rn; cbn; lia.
  - inversion H; subst. rewrite cancel_fold_rn. lia.
  - inversion H; subst. lia.
  - inversion H; subst. lia.
  - destruct (N.eqb _ _); [|discriminate]. inversion H; subst. unfold rn. cbn. lia.
  - inversion H; subst. lia.
Qed.

Lemma rn_del x l t : StronglySorted tlt (map fst l) ->
  (match run_find (run_del l t) x with Some _ => 1 | None => 0 end <= match run_find l x with Some _ => 1 | None => 0 end)%nat.
Proof.
  intros Hs. rewrite (run_find_del l t x Hs). destruct (tid_eqb x t); [destruct (run_find l x); lia | lia].
Qed.

Lemma task_end_rn p t how p' ls x : StronglySorted tlt (map fst (p_running p)) -> task_end p t how = Ok (p', ls) -> (rn x p' <= rn x p + lcnt x ls)%nat.
Proof.
  intros Hs H. unfold task_end in H. destruct (fu_find (p_futures p) t) as [stop|]; [|discriminate].
  destruct (run_find (p_running p) t) as [rv|]; [|discriminate]. destruct (al_find (p_alloc p) t) as [[|rq alloc]|]; try discriminate.
  match type of H with context [prefill_loop ?f ?q0 ?a ?b ?c ?u0 []] => destruct (prefill_loop f q0 a b c u0 []) as [[[p1 ups1] ls1] usd] eqn:Ep end.
  pose proof (prefill_loop_rn _ x _ _ _ _ _ _ _ _ _ _ Ep) as H1. cbn [lcnt filter length] in H1.
  assert (H0 : (rn x p1 <= rn x p + lcnt x ls1)%nat).
  { match type of H1 with (_ <= rn x ?q0 + _)%nat => assert (Hq : (rn x q0 <= rn x p)%nat) by (unfold rn; cbn [p_running wp_upd]; apply rn_del; exact Hs) end. lia. }
  match type of H with (let '(_, _) := ?e in _) = _ => destruct e as [p2 ups2] eqn:E2 end.
  assert (E : rn x p2 = rn x p1) by (destruct (negb usd); inversion E2; subst; reflexivity).
  destruct ups2; inversion H; subst; [lia|]. change (rn x (send_up p2 (UUpdates (w :: ups2)))) with (rn x p2). lia.
Qed.

Definition RU (s : sys) : Prop := forall x, (psum (ex1 x) (s_procs s) <= 1)%nat.

Lemma running_sorted s w p : PROTO s -> find_proc (s_procs s) w = Some p -> StronglySorted tlt (map fst (p_running p)).
Proof. intros HP Hp. apply lok_sorted. apply local_ok_LOK. exact (pr_local _ HP _ _ Hp). Qed.

Lemma RU_set_proc s w p p' : PROTO s -> RU s -> find_proc (s_procs s) w = Some p -> p_id p' = w ->
  (forall x, (ex1 x p' <= ex1 x p)%nat) -> RU (with_procs s (set_proc (s_procs s) p')).
Proof.
  intros HP HR Hp Hid Hle x. cbn [s_procs with_procs]. pose proof (psum_set_proc (ex1 x) _ w p p' (pr_sorted _ HP) Hp Hid). specialize (HR x). specialize (Hle x). lia.
Qed.

Lemma RU_ddown s w order p m rest p' ls : PROTO s -> RU s -> find_proc (s_procs s) w = Some p -> p_down p = m :: rest ->
  process_worker_message (wp_down p rest) m order = Ok (p', ls) -> RU (with_procs s (set_proc (s_procs s) p')).
Proof.
  intros HP HR Hp Ed Hm.
  destruct (find_proc_some _ _ _ Hp) as [_ Hid].
  assert (Hs : StronglySorted N.lt (map fst (p_backlog (wp_down p rest)))) by (cbn; exact (backlog_sorted s w p HP Hp)).
  destruct (pwm_eff _ _ _ _ _ Hm Hs) as (newg & _ & _ & (W1 & _ & _)).
  apply (RU_set_proc s w p p' HP HR Hp); [rewrite (process_worker_message_id _ _ _ _ _ Hm); exact Hid|].
  intros x. specialize (W1 x). pose proof (pwm_rn _ _ _ _ _ x Hm) as Hr. change (rn x (wp_down p rest)) with (rn x p) in Hr.
  unfold ex1. assert (E : pc x p = (dc x [m] + pc x (wp_down p rest))%nat).
  { unfold pc. rewrite Ed. cbn [p_down p_backlog wp_down wp_upd]. change (m :: rest) with ([m] ++ rest). rewrite dc_app. lia. }
  lia.
Qed.

Lemma RU_end s w t how p p' ls : PROTO s -> RU s -> find_proc (s_procs s) w = Some p -> task_end p t how = Ok (p', ls) ->
  RU (with_procs s (set_proc (s_procs s) p')).
Proof.
  intros HP HR Hp Hm.
  destruct (find_proc_some _ _ _ Hp) as [_ Hid].
  destruct (task_end_eff _ _ _ _ _ Hm (backlog_sorted s w p HP Hp)) as (_ & _ & (W1 & _ & _)).
  apply (RU_set_proc s w p p' HP HR Hp); [rewrite (task_end_id _ _ _ _ _ Hm); exact Hid|].
  intros x. specialize (W1 x). pose proof (task_end_rn _ _ _ _ _ x (running_sorted s w p HP Hp) Hm). unfold ex1. lia.
Qed.

Lemma RU_map s (f : wproc -> wproc) : RU s -> (forall p x, ex1 x (f p) = ex1 x p) -> RU (with_procs s (map f (s_procs s))).
Proof. intros HR Hf x. cbn [s_procs with_procs]. rewrite psum_map by (intros p; apply Hf). exact (HR x). Qed.

Definition frame (s s' : sys) : Prop :=
  forall w p', find_proc (s_procs s') w = Some p' ->
    exists p add, find_proc (s_procs s) w = Some p /\ p_backlog p' = p_backlog p /\ p_running p' = p_running p /\ p_down p' = p_down p ++ add /\
      forall ct, In ct (dcts add) -> exists t', find_task (c_tasks (s_core s')) (ct_id ct) = Some t'.

Lemma step_frame s o s' outs : server_op o -> INV s -> PROTO s -> step s o = Ok (s', outs) -> frame s s'.
Proof.
  intros Ho HI HP H. destruct (step_server_PR s o s' outs Ho HI HP H) as (s1 & o1 & Hpop & _ & (_ & P & _)).
  destruct (popped_proc _ _ _ Hpop) as [_ Hproc]. intros w p' Hp'.
  destruct (P w p' Hp') as (p1 & add & X1 & X2 & X3 & X4 & X5 & X6). cbn [fst] in X1.
  destruct (Hproc w p1 X1) as (p & hd & Hp & Eb & Er & Ed & _). exists p, add.
  split; [exact Hp|]. split; [congruence|]. split; [congruence|]. split; [congruence|].
  intros ct Hct. destruct (AC_ct _ _ _ _ _ X6 Hct) as (_ & t' & Ht' & _). eauto.
Qed.

Lemma RU_frame s s' : PROTO s -> PROTO s' -> RU s -> frame s s' -> RU s'.
Proof.
  intros HP HP' HR HF x. destruct (find_task (c_tasks (s_core s')) x) as [t'|] eqn:Ef; [exact (known_ex1 s' HP' x t' Ef)|].
  specialize (HR x). assert (Hle : (psum (ex1 x) (s_procs s') <= psum (ex1 x) (s_procs s))%nat); [|lia].
  apply psum_le; [exact (pr_sorted _ HP') | exact (pr_sorted _ HP)|]. intros p' Hin'.
  destruct (HF _ _ (in_find_proc _ _ (pr_sorted _ HP') Hin')) as (p & add & Hf & Eb & Er & Ed & Hadd). exists p. split; [exact Hf|].
  unfold ex1, rn. rewrite Er, (pc_app_down x p p' add Eb Ed). assert (Hz : dc x add = O); [|lia].
  unfold dc. destruct (ccnt x (dcts add)) eqn:E; [reflexivity|]. exfalso.
  assert (Hpos : (0 < ccnt x (dcts add))%nat) by lia. apply ccnt_pos in Hpos. destruct Hpos as (ct & Hct & Hid).
  destruct (Hadd ct Hct) as (t' & Ht'). rewrite Hid in Ht'. congruence.
Qed.

Lemma RU_lost s w reason a p t s' outs : INV s -> PROTO s -> PROTO s' -> RU s -> on_remove_worker (s, []) w reason a p t = Ok (s', outs) -> RU s'.
Proof.
  intros HI HP HP' HR H x. destruct (find_task (c_tasks (s_core s')) x) as [t'|] eqn:Ef; [exact (known_ex1 s' HP' x t' Ef)|].
  pose proof (pr_sorted _ HP) as Hps. pose proof (pr_sorted _ HP') as Hps'.
  destruct (on_remove_worker_EXF (s, []) w reason a p t (s', outs) (inv_cb _ HI) Hps Hps' H) as (_ & _ & PFL & CCL).
  cbn [fst core_of] in PFL, CCL.
  assert (Hrc : (psum (rn x) (s_procs s') <= psum (rn x) (del_proc (s_procs s) w))%nat).
  { apply psum_le; [exact Hps' | apply del_proc_sorted; exact Hps|]. intros p' Hin'.
    destruct (PFL _ _ (in_find_proc _ _ Hps' Hin')) as (Hne & p0 & add & Hf0 & _ & Er & _). exists p0. split.
    - rewrite find_del_proc by exact Hps. destruct (N.eqb (p_id p') w) eqn:E2; [apply N.eqb_eq in E2; contradiction | exact Hf0].
    - unfold rn. rewrite Er. lia. }
  rewrite psum_ex1. specialize (HR x). pose proof (psum_del_le (ex1 x) (s_procs s) w) as Hd. rewrite psum_ex1 in Hd.
  destruct (CCL x) as [Hc|[Hc (t0 & Ht0 & Est0)]]; [lia|].
  pose proof (known_placed s HP x t0 Ht0 w ltac:(rewrite Est0; reflexivity)) as Hz. rewrite psum_ex1 in Hz. lia.
Qed.

Theorem step_RU s o s' outs : INV s -> PROTO s -> PROTO s' -> RU s -> step s o = Ok (s', outs) -> RU s'.
Proof.
  intros HI HP HP' HR H. destruct (server_op_dec o) as [Ho|Hn]; [exact (RU_frame s s' HP HP' HR (step_frame s o s' outs Ho HI HP H))|].
  set (R := fun a b : st => INV (fst a) -> PROTO (fst a) -> PROTO (fst b) -> RU (fst a) -> RU (fst b)).
  refine (step_walk R (fun o => ~ server_op o) _ _ _ _ _ _ _ _ _ _ _ _ _ _ _ _ s o s' outs Hn H HI HP HP' HR); unfold R; clear; cbn [fst];
    try (intros; match goal with Hn : ~ server_op _ |- _ => destruct (Hn I) end). (* the guard excludes the server's entry points *)
  - (* connect *) intros s rs g s' _ H _ _ _ HR. unfold on_new_worker in H. cbv zeta in H. inversion H; subst s'. clear H.
    cbn [fst snd emit ask_scheduling st_core with_core with_procs broadcast core_of s_core s_procs s_hq].
    intros x. cbn [s_procs s_core s_hq with_procs with_core core_of fst snd]. match goal with |- (psum _ (set_proc ?ps ?np) <= _)%nat => pose proof (psum_set_proc_le (ex1 x) ps np) as Hc; assert (Hz : ex1 x np = O) by reflexivity end.
    rewrite psum_map in Hc by (intros q; unfold ex1, rn; rewrite pc_push_quiet by exact I; reflexivity). specialize (HR x). lia.
  - intros s w reason a p t pw [s' outs] _ _ H HI HP HP' HR. exact (RU_lost s w reason a p t s' outs HI HP HP' HR H).
  - intros s o c a _ _ _ _ HR. exact HR.
  - intros s lj _ _ _ _ _ HR. exact HR.
  - intros s w order p m rest p' ls _ Hp Ed Hm _ HP _ HR. exact (RU_ddown s w order p m rest p' ls HP HR Hp Ed Hm).
  - intros s w t how p p' ls _ Hp Hm _ HP _ HR. exact (RU_end s w t how p p' ls HP HR Hp Hm).
  - (* failnext *) intros s w t p _ Hp _ HP _ HR.
    apply (RU_set_proc s w p _ HP HR Hp); [exact (proj2 (find_proc_some _ _ _ Hp)) | intros x; unfold ex1, rn, pc; cbn [p_running p_down p_backlog wp_failnext wp_upd]; lia].
  - (* timer *) intros s _ _ _ _ HR. apply RU_map; [exact HR|]. intros p x.
    destruct (timer_fold_frame (p_timers p) p) as (A & B & _). cbv zeta in A, B. unfold ex1, rn, pc. rewrite A, B, timer_fold_running. reflexivity.
Qed.

Theorem reachable_RU ops : forall reserve maxfill s outs,
  Forall op_wf ops -> ops_ok (init_sys reserve maxfill) ops = true -> run (init_sys reserve maxfill) ops = Ok (s, outs) -> RU s.
Proof.
  apply (reachable_ind (fun s _ => RU s)); [intros reserve maxfill x; cbn; lia|].
  intros s pre o s' outs HR HI _ HP HP' H. exact (step_RU s o s' outs HI HP HP' HR H).
Qed.

(** C06: one live execution per task *)
Lemma in_del_other ps p w : In p ps -> p_id p <> w -> In p (del_proc ps w).
Proof.
  induction ps as [|h r IH]; [intros []|]. cbn [del_proc]. intros [->|Hin] Hne.
  - destruct (N.eqb w (p_id p)) eqn:E; [apply N.eqb_eq in E; congruence | left; reflexivity].
  - destruct (N.eqb w (p_id h)); [exact Hin | right; apply IH; assumption].
Qed.

Lemma psum_two f ps p1 p2 : NoPanicU1.psorted ps -> In p1 ps -> In p2 ps -> p_id p1 <> p_id p2 -> (f p1 + f p2 <= psum f ps)%nat.
Proof.
  intros Hs H1 H2 Hne. rewrite (psum_del f ps _ _ Hs (in_find_proc _ _ Hs H1)).
  pose proof (psum_in f _ p2 (in_del_other _ _ _ H2 (fun E => Hne (eq_sym E)))). lia.
Qed.

(** In every reachable state: a task that is running on one worker process is neither running on
    another one nor held as a copy (compute entry in flight / backlog entry) by another one.
    (A multi-node task is launched by its root worker only: the other workers of its set get no
    compute message.) *)
Theorem single_execution ops reserve maxfill s outs :
  Forall op_wf ops -> ops_ok (init_sys reserve maxfill) ops = true -> run (init_sys reserve maxfill) ops = Ok (s, outs) ->
  forall p1 p2 x, In p1 (s_procs s) -> In p2 (s_procs s) -> p_id p1 <> p_id p2 ->
    run_find (p_running p1) x <> None -> run_find (p_running p2) x = None /\ pc x p2 = O.
Proof.
  intros Hwf Hok H p1 p2 x H1 H2 Hne Hr.
  pose proof (reachable_RU _ _ _ _ _ Hwf Hok H x) as HR.
  pose proof (pr_sorted _ (proj1 (reachable_PROTO _ _ _ _ _ Hwf Hok H))) as Hs.
  pose proof (psum_two (ex1 x) _ p1 p2 Hs H1 H2 Hne) as Ht. set (S := psum (ex1 x) (s_procs s)) in *. unfold ex1, rn in Ht.
  destruct (run_find (p_running p1) x); [|congruence]. destruct (run_find (p_running p2) x); [exfalso; lia|]. split; [reflexivity | lia].
Qed.

(** ... in the executable form of Monitors.v. *)
Theorem single_execution_monitor ops reserve maxfill s outs :
  Forall op_wf ops -> ops_ok (init_sys reserve maxfill) ops = true -> run (init_sys reserve maxfill) ops = Ok (s, outs) ->
  Monitors.single_execution_ok s = true.
Proof.
  intros Hwf Hok H. unfold single_execution_ok. apply forallb_forall. intros p Hp. apply forallb_forall. intros [x rv] Hr.
  apply negb_true_iff. destruct (existsb _ (s_procs s)) eqn:E; [|reflexivity]. exfalso.
  apply existsb_exists in E. destruct E as (p' & Hp' & E). apply andb_true_iff in E. destruct E as [E1 E2].
  apply negb_true_iff, N.eqb_neq in E1. cbn [fst] in E2.
  assert (Hrun : run_find (p_running p) x <> None).
  { clear -Hr. induction (p_running p) as [|[k v] r IH]; [destruct Hr|]. cbn [run_find]. destruct (tid_eqb x k) eqn:Ek; [discriminate|].
    destruct Hr as [Hr|Hr]; [inversion Hr; subst; rewrite tid_eqb_refl in Ek; discriminate | exact (IH Hr)]. }
  destruct (single_execution _ _ _ _ _ Hwf Hok H p p' x Hp Hp' (fun X => E1 (eq_sym X)) Hrun) as [Hn _]. rewrite Hn in E2. discriminate.
Qed.

Print Assumptions single_execution.
Print Assumptions single_execution_monitor.
