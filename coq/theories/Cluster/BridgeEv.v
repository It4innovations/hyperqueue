(** Bridge, part 2: one lemma per journal record kind (job-layer transition vs. [Gen.gstep]); for the
    submit record, [validate_submit] of the system model implies the journal's [Restore.validate]. *)
From HQ Require Import Base.Prelude Cluster.Types Cluster.Core Cluster.Reactor Cluster.Worker Cluster.Server Cluster.Sys Cluster.ProofsJob Cluster.ProofsMore Cluster.ProofsStep.
From HQ Require Journal.Event Journal.Restore Journal.Gen Journal.Maps Journal.RestoreProofs.
From HQ Require Import Cluster.Bridge Cluster.BridgeRel.
From Coq Require Import ZArith Lia.
Require Import ZifyBool ZifyN ZifyNat.
Local Open Scope N_scope.
Arguments N.add : simpl never.
Arguments N.ltb : simpl never.
Arguments N.eqb : simpl never.

Lemma task_rel_lookup jt gt t v : task_rel jt gt -> jt_find jt t = Some v ->
  exists x, Event.lookup t gt = Some x /\ st_rel v (Gen.gt_state x).
Proof. intros H Hf. specialize (H t). rewrite Hf in H. destruct (Event.lookup t gt) as [x|]; [eauto | contradiction]. Qed.

Lemma task_rel_lookup_inv jt gt t x : task_rel jt gt -> Event.lookup t gt = Some x ->
  exists v, jt_find jt t = Some v /\ st_rel v (Gen.gt_state x).
Proof. intros H Hl. specialize (H t). rewrite Hl in H. destruct (jt_find jt t) as [v|]; [eauto | contradiction]. Qed.

Lemma JRel_set jb jb' gj t v x :
  JRel jb gj -> retask jb jb' t v -> st_rel v (Gen.gt_state x) -> JRel jb' (Gen.gj_set_task gj t x).
Proof.
  intros (Ho & Hn & Ht) (Ho' & _ & Hother & Hnew) Hst. split; [cbn; congruence|]. split; [apply nodup_set_task; exact Hn|].
  cbn. eapply task_rel_upd; eassumption.
Qed.

Lemma RelJ_retask h h' g j jb jb' gj t v x :
  RelJ h g -> UPD h h' j jb' -> j_completed jb = false -> JRel jb gj -> retask jb jb' t v -> st_rel v (Gen.gt_state x) ->
  RelJ h' (Gen.g_upd_task g j gj t x).
Proof.
  intros HR HU Hc HJ Hre Hst. eapply RelJ_upd1; [exact HR | exact HU | | eapply JRel_set; eassumption].
  destruct Hre as (_ & -> & _). exact Hc.
Qed.

Lemma JRel_terminated jb gj :
  JRel jb gj -> j_open jb = false -> cnt (j_tasks jb) JR = 0 -> cnt (j_tasks jb) JW = 0 -> Gen.job_terminated gj = true.
Proof.
  intros (Ho & Hn & Ht) Hop Hr Hw. unfold Gen.job_terminated. rewrite Ho, Hop. cbn [negb andb].
  apply Bool.negb_true_iff. unfold Gen.job_active.
  destruct (existsb _ _) eqn:E; [|reflexivity]. exfalso.
  apply existsb_exists in E. destruct E as ([t x] & Hin & Hx). cbn [snd] in Hx. apply Bool.negb_true_iff in Hx.
  pose proof (Maps.in_lookup _ _ _ Hn Hin) as Hl.
  destruct (task_rel_lookup_inv _ _ _ _ Ht Hl) as (v & Hf & Hst).
  pose proof (cnt_find_pos _ _ _ Hf) as Hp. rewrite (g_terminal_st _ _ Hst) in Hx. destruct v; try discriminate; lia.
Qed.

Lemma JRel_active jb gj t v : JRel jb gj -> jt_find (j_tasks jb) t = Some v -> (v = JW \/ v = JR) -> Gen.job_active gj = true.
Proof.
  intros (_ & _ & Ht) Hf Hv. destruct (task_rel_lookup _ _ _ _ Ht Hf) as (x & Hl & Hst).
  unfold Gen.job_active. apply existsb_exists. exists (t, x). split; [apply Maps.lookup_in; exact Hl|].
  cbn [snd]. rewrite (st_rel_pending _ _ Hst Hv). reflexivity.
Qed.

Lemma ev_started h h' j t inst ws jb jb' v :
  find_job (h_jobs h) j = Some jb -> jt_find (j_tasks jb) t = Some v -> UPD h h' j jb' ->
  retask jb jb' t (match v with JW => JR | _ => v end) ->
  SimE h [Event.ETaskStarted j t inst ws] h'.
Proof.
  intros Hfj Hft HU Hre. apply SimE_one. intros g HR. cbn [Gen.gstep core_event].
  destruct (Event.lookup j (Gen.g_jobs g)) as [gj|] eqn:Elj; [|reflexivity].
  destruct (Event.lookup t (Gen.gj_tasks gj)) as [x|] eqn:Elt; [|reflexivity].
  destruct (Gen.gt_state x) eqn:Es; try reflexivity. destruct ws as [|w0 wr]; [reflexivity|].
  destruct (_ && _); [|reflexivity].
  destruct (RelJ_job_inv _ _ _ _ _ HR Hfj Elj) as (Hc & HJ).
  eapply RelJ_retask; [exact HR | exact HU | exact Hc | exact HJ | exact Hre|].
  destruct HJ as (_ & _ & Ht). specialize (Ht t). rewrite Hft, Elt, Es in Ht.
  destruct v; try discriminate Ht; reflexivity.
Qed.

Lemma ev_finished h h' j t jb jb' :
  find_job (h_jobs h) j = Some jb -> UPD h h' j jb' -> retask jb jb' t JF ->
  SimE h [Event.ETaskFinished j t] h'.
Proof.
  intros Hfj HU Hre. apply SimE_one. intros g HR. cbn [Gen.gstep core_event].
  destruct (Event.lookup j (Gen.g_jobs g)) as [gj|] eqn:Elj; [|reflexivity].
  destruct (Event.lookup t (Gen.gj_tasks gj)) as [x|] eqn:Elt; [|reflexivity].
  destruct (Gen.gt_state x) eqn:Es; try reflexivity.
  destruct (RelJ_job_inv _ _ _ _ _ HR Hfj Elj) as (Hc & HJ).
  eapply RelJ_retask; [exact HR | exact HU | exact Hc | exact HJ | exact Hre | reflexivity].
Qed.

Lemma ev_failed h h' j t jb jb' v :
  JOK jb -> find_job (h_jobs h) j = Some jb -> jt_find (j_tasks jb) t = Some v -> v = JW \/ v = JR -> UPD h h' j jb' ->
  retask jb jb' t JX ->
  SimE h [Event.ETaskFailed j t] h'.
Proof.
  intros Hok Hfj Hft Hv HU Hre. apply SimE_one. intros g HR. cbn [Gen.gstep core_event].
  pose proof (pending_not_completed _ _ _ Hok Hft Hv) as Hc.
  destruct (RelJ_job _ _ _ _ HR Hfj Hc) as (gj & Elj & HJ). rewrite Elj.
  destruct (task_rel_lookup _ _ _ _ (proj2 (proj2 HJ)) Hft) as (x & Elt & Hst).
  rewrite Elt, (st_rel_pending _ _ Hst Hv).
  eapply RelJ_retask; [exact HR | exact HU | exact Hc | exact HJ | exact Hre | reflexivity].
Qed.

Definition gterm_of (target : jstate) : Gen.gstate := match target with JC => Gen.GCanceled | _ => Gen.GAborted end.

Lemma job_upd_id j a b c d e f g0 : j_id (job_upd j a b c d e f g0) = j_id j. Proof. reflexivity. Qed.

Lemma mark_tasks_cons jb t r target site jb1 :
  mark_tasks jb (t :: r) target site = Ok jb1 ->
  fst t = j_id jb /\ exists v nr, jt_find (j_tasks jb) (snd t) = Some v /\ (v = JW \/ v = JR)
    /\ mark_tasks (job_upd jb (jt_set (j_tasks jb) (snd t) target) nr (j_nfin jb) (j_nfail jb) (j_ncanc jb) (j_nabort jb) (j_completed jb))
                  r target site = Ok jb1.
Proof.
  cbn [mark_tasks]. destruct (N.eqb_spec (fst t) (j_id jb)) as [Eid|]; [|discriminate]. cbn [negb].
  destruct (jt_find (j_tasks jb) (snd t)) as [v|]; [|discriminate]. intros Hm. split; [exact Eid|]. exists v.
  destruct v; try discriminate.
  - exists (j_nrun jb). auto.
  - apply bind_ok in Hm. destruct Hm as (nr & _ & Hm). exists nr. auto.
Qed.

Lemma mark_fold target site : is_abort_or_cancel target -> forall ids jb jb1 g gj,
  mark_tasks jb ids target site = Ok jb1 ->
  Event.lookup (j_id jb) (Gen.g_jobs g) = Some gj -> JRel jb gj ->
  exists g1 gj1, fold_left (Gen.g_term_one (gterm_of target)) ids (Some g) = Some g1
    /\ Event.lookup (j_id jb) (Gen.g_jobs g1) = Some gj1 /\ JRel jb1 gj1
    /\ (forall id, id <> j_id jb -> Event.lookup id (Gen.g_jobs g1) = Event.lookup id (Gen.g_jobs g))
    /\ Gen.g_max_job g1 = Gen.g_max_job g.
Proof.
  intros Htg. induction ids as [|t r IH]; intros jb jb1 g gj Hm Hl HJ.
  - injection Hm as <-. exists g, gj. split; [reflexivity|]. split; [exact Hl|]. split; [exact HJ|]. split; reflexivity.
  - destruct (mark_tasks_cons _ _ _ _ _ _ Hm) as (Eid & v & nr & Ef & Hv & Hm2).
    destruct (task_rel_lookup _ _ _ _ (proj2 (proj2 HJ)) Ef) as (x & Elt & Hst).
    set (x' := Gen.mkGT (gterm_of target) (Gen.gt_last x) (Gen.gt_ws x) (Gen.gt_crash x)).
    destruct (IH _ _ (Gen.g_upd_task g (j_id jb) gj (snd t) x') _ Hm2 (Maps.lookup_insert_eq _ _ _))
      as (g1 & gj1 & Hf & Hl1 & HJ1 & Ho1 & Hmx).
    { eapply JRel_set; [exact HJ | apply retask_upd | destruct Htg as [-> | ->]; reflexivity]. }
    exists g1, gj1. split; [|split; [exact Hl1|]; split; [exact HJ1|]; split; [|exact Hmx]].
    + destruct t as [tj tt]. cbn [fst snd] in *. subst tj. cbn [fold_left]. unfold Gen.g_term_one at 2.
      rewrite Hl, Elt, (st_rel_pending _ _ Hst Hv). exact Hf.
    + intros id Hn. rewrite (Ho1 id Hn). apply Maps.lookup_insert_neq. exact Hn.
Qed.

Lemma ev_term target site h h' ids jb jb1 jb' :
  is_abort_or_cancel target -> find_job (h_jobs h) (j_id jb) = Some jb -> j_completed jb = false ->
  mark_tasks jb ids target site = Ok jb1 -> UPD h h' (j_id jb) jb' ->
  j_completed jb' = false -> j_open jb' = j_open jb1 -> j_tasks jb' = j_tasks jb1 ->
  SimE h [match target with JC => Event.ETasksCanceled ids | _ => Event.ETasksAborted ids end] h'.
Proof.
  intros Htg Hfj Hc Hm HU Hcm Hop Htk. apply SimE_one. intros g HR.
  destruct (RelJ_job _ _ _ _ HR Hfj Hc) as (gj & Elj & HJ).
  destruct (mark_fold target site Htg ids jb jb1 g gj Hm Elj HJ) as (g1 & gj1 & Hf & Hl1 & (A & B & C) & Ho1 & Hmx).
  assert (E : Gen.gstep g (match target with JC => Event.ETasksCanceled ids | _ => Event.ETasksAborted ids end) = Some g1).
  { destruct Htg as [-> | ->]; exact Hf. }
  rewrite E. eapply RelJ_upd2; [exact HR | exact HU | exact Hcm | exact Hl1 | | exact Ho1 | exact Hmx].
  split; [congruence|]. split; [exact B|]. rewrite Htk. exact C.
Qed.

Lemma ev_jobcancel h jb t v :
  JOK jb -> find_job (h_jobs h) (j_id jb) = Some jb -> jt_find (j_tasks jb) t = Some v -> (v = JW \/ v = JR) ->
  SimE h [Event.EJobCancel (j_id jb)] h.
Proof.
  intros Hok Hfj Hft Hv. apply SimE_one. intros g HR. cbn [Gen.gstep].
  destruct (RelJ_job _ _ _ _ HR Hfj (pending_not_completed _ _ _ Hok Hft Hv)) as (gj & Elj & HJ).
  rewrite Elj, (JRel_active _ _ _ _ HJ Hft Hv). exact HR.
Qed.

Lemma ev_completed h h' jb jb' :
  find_job (h_jobs h) (j_id jb) = Some jb -> j_completed jb = false ->
  j_open jb = false -> cnt (j_tasks jb) JR = 0 -> cnt (j_tasks jb) JW = 0 ->
  UPD h h' (j_id jb) jb' -> j_completed jb' = true ->
  SimE h [Event.EJobCompleted (j_id jb)] h'.
Proof.
  intros Hfj Hc Hop Hr Hw [Hf Hcn] Hc'. apply SimE_one. intros g HR. cbn [Gen.gstep].
  destruct (RelJ_job _ _ _ _ HR Hfj Hc) as (gj & Elj & HJ). rewrite Elj, (JRel_terminated _ _ HJ Hop Hr Hw).
  destruct HR as [HJs HM]. split; [|cbn; rewrite Hcn; exact HM].
  intros id. rewrite Hf. cbn [Gen.g_set_jobs Gen.g_jobs]. rewrite Maps.lookup_remove.
  destruct (N.eqb id (j_id jb)) eqn:E; [rewrite Hc'; reflexivity|]. exact (HJs id).
Qed.

Lemma ev_open_new h h' mf :
  (forall id, find_job (h_jobs h') id = if N.eqb id (h_counter h) then Some (mkJob (h_counter h) true [] 0 0 0 0 0 false mf) else find_job (h_jobs h) id) ->
  h_counter h' = h_counter h + 1 ->
  SimE h [Event.EJobOpen (h_counter h)] h'.
Proof.
  intros Hf Hcn. apply SimE_one. intros g [HJ HM]. cbn [Gen.gstep].
  replace (Gen.g_max_job g <? h_counter h) with true by lia.
  split; [|cbn; lia]. intros id. rewrite Hf. cbn [Gen.g_jobs]. rewrite Maps.lookup_insert.
  destruct (N.eqb id (h_counter h)); [|exact (HJ id)].
  cbn [j_completed]. eexists. split; [reflexivity|]. split; [reflexivity|]. split; [constructor|]. intros t. cbn. exact I.
Qed.

Lemma ev_close h h' jb jb' :
  JOK jb -> find_job (h_jobs h) (j_id jb) = Some jb -> j_open jb = true -> UPD h h' (j_id jb) jb' ->
  j_completed jb' = j_completed jb -> j_open jb' = false -> j_tasks jb' = j_tasks jb ->
  SimE h [Event.EJobClose (j_id jb)] h'.
Proof.
  intros Hok Hfj Hop HU Hcm Hop' Htk. apply SimE_one. intros g HR. cbn [Gen.gstep].
  pose proof (open_not_completed _ Hok Hop) as Hc.
  destruct (RelJ_job _ _ _ _ HR Hfj Hc) as (gj & Elj & (Ho & Hn & Ht)). rewrite Elj, Ho, Hop.
  eapply RelJ_upd1; [exact HR | exact HU | congruence|].
  split; [cbn; congruence|]. split; [exact Hn|]. cbn. rewrite Htk. exact Ht.
Qed.

Lemma ev_wconn h w : SimE h [Event.EWorkerConnected w None] h.
Proof.
  apply SimE_one. intros g [HJ HM]. cbn [Gen.gstep core_event]. destruct (_ <? _); [|reflexivity].
  split; [exact HJ | exact HM].
Qed.

Lemma g_lose_terminal w f x : Gen.g_terminal (Gen.gt_state (Gen.g_lose_task w f x)) = Gen.g_terminal (Gen.gt_state x).
Proof.
  unfold Gen.g_lose_task. destruct (Gen.gt_state x) eqn:E; try (rewrite E; reflexivity).
  destruct (Gen.gt_ws x); [rewrite E; reflexivity|]. destruct (N.eqb _ _); [reflexivity | rewrite E; reflexivity].
Qed.

Lemma g_lose_st v w f x : st_rel v (Gen.gt_state x) -> st_rel v (Gen.gt_state (Gen.g_lose_task w f x)).
Proof.
  intros H. destruct v; cbn in *; try (rewrite g_lose_terminal; exact H);
  unfold Gen.g_lose_task; rewrite H; cbn; exact H.
Qed.

Lemma JRel_lose jb gj w f : JRel jb gj -> JRel jb (Gen.g_lose_job w f gj).
Proof.
  intros (Ho & Hn & Ht). split; [exact Ho|]. split.
  - unfold Gen.g_lose_job. cbn [Gen.gj_tasks]. rewrite (Maps.keys_map_values (fun kv => Gen.g_lose_task w f (snd kv))). exact Hn.
  - intros t. unfold Gen.g_lose_job. cbn [Gen.gj_tasks]. rewrite Maps.lookup_map_values. specialize (Ht t).
    destruct (jt_find (j_tasks jb) t) as [v|], (Event.lookup t (Gen.gj_tasks gj)) as [x|]; cbn [option_map]; try exact Ht.
    apply g_lose_st. exact Ht.
Qed.


Lemma lose_active gj w f : Gen.job_active (Gen.g_lose_job w f gj) = Gen.job_active gj.
Proof.
  unfold Gen.job_active, Gen.g_lose_job. cbn [Gen.gj_tasks].
  induction (Gen.gj_tasks gj) as [|kv r IH]; [reflexivity|]. cbn [List.map existsb snd]. rewrite g_lose_terminal, IH. reflexivity.
Qed.

Lemma ev_wlost h w r : SimE h [Event.EWorkerLost w r] h.
Proof.
  apply SimE_one. intros g [HJ HM]. cbn [Gen.gstep core_event]. destruct (Event.memN _ _); [|reflexivity].
  split; [|exact HM]. intros j. cbn [Gen.g_jobs]. rewrite Maps.lookup_map_values. specialize (HJ j).
  destruct (find_job (h_jobs h) j) as [jb|].
  - destruct (j_completed jb); [rewrite HJ; reflexivity|]. destruct HJ as (gj & Hl & HR). rewrite Hl. cbn [option_map].
    eexists. split; [reflexivity | apply JRel_lose; exact HR].
  - destruct (Event.lookup j (Gen.g_jobs g)) as [gj|]; cbn [option_map]; [|exact I].
    unfold Gen.job_terminated. rewrite lose_active. exact HJ.
Qed.

Lemma n_mem_memN x l : n_mem x l = Event.memN x l.
Proof. induction l as [|h r IH]; cbn; [reflexivity | rewrite IH; reflexivity]. Qed.

Lemma nodup_attach sub : forall (m : Event.map Gen.GTask), NoDup (Event.keys m) -> NoDup (Event.keys (Gen.g_attach m sub)).
Proof.
  unfold Gen.g_attach. induction sub as [|ts r IH]; cbn [fold_left]; intros m H; [exact H|].
  apply IH. apply Maps.nodup_insert. exact H.
Qed.

Lemma lookup_attach sub m t :
  Event.lookup t (Gen.g_attach m sub) = if Event.memN t (List.map Event.ts_id sub) then Some Gen.fresh_task else Event.lookup t m.
Proof. rewrite RestoreProofs.g_attach_is_gen. apply RestoreProofs.lookup_attach_gen. Qed.

Lemma attach_ids_spec ids : forall j j', attach_ids j ids = Ok j' ->
  NoDup ids /\ (forall i, In i ids -> jt_find (j_tasks j) i = None) /\
  (forall t, jt_find (j_tasks j') t = if Event.memN t ids then Some JW else jt_find (j_tasks j) t) /\
  j_id j' = j_id j /\ j_open j' = j_open j /\ j_completed j' = j_completed j.
Proof.
  induction ids as [|i r IH]; cbn [attach_ids]; intros j j' H.
  - inversion H; subst. split; [constructor|]. split; [intros i []|]. split; [intros t; reflexivity|]. auto.
  - destruct (jt_find (j_tasks j) i) eqn:Ef; [discriminate|].
    destruct (IH _ _ H) as (Hn & Hnew & Hf & A1 & A2 & A3). cbn in Hnew, Hf, A1, A2, A3.
    assert (Hi : ~ In i r). { intros Hin. specialize (Hnew i Hin). rewrite jt_find_set_same in Hnew. discriminate. }
    split; [constructor; assumption|]. split; [|split; [|auto]].
    + intros i' [<-|Hin]; [exact Ef|]. specialize (Hnew i' Hin).
      destruct (N.eq_dec i' i) as [->|Hne]; [contradiction|]. rewrite jt_find_set_other in Hnew by exact Hne. exact Hnew.
    + intros t. rewrite Hf. cbn [Event.memN existsb]. fold (Event.memN t r).
      destruct (N.eqb t i) eqn:E.
      * apply N.eqb_eq in E. subst t. cbn [orb]. destruct (Event.memN i r) eqn:Em; [reflexivity|]. apply jt_find_set_same.
      * cbn [orb]. destruct (Event.memN t r); [reflexivity|]. apply jt_find_set_other. intros ->. rewrite N.eqb_refl in E. discriminate.
Qed.

Lemma validate_graph_array {V} (m : Event.map V) c ids : forall seen,
  NoDup ids -> (forall i, In i ids -> ~ In i seen) ->
  Restore.validate_graph m seen (List.map (fun i => Event.mkTS i c []) ids) = true.
Proof.
  induction ids as [|i r IH]; intros seen Hn Hs; cbn [List.map Restore.validate_graph]; [reflexivity|].
  inversion Hn; subst. cbn [Event.ts_id Event.ts_deps forallb]. rewrite Bool.andb_true_r.
  apply andb_true_intro. split.
  - apply Bool.negb_true_iff. apply Maps.memN_false. apply Hs. left. reflexivity.
  - apply IH; [assumption|]. intros i' Hin [<-|Hin']; [contradiction|]. apply (Hs i'); [right; exact Hin | exact Hin'].
Qed.

Lemma validate_array {V} (m : Event.map V) c ids :
  NoDup ids -> (forall i, In i ids -> Event.mem i m = false) ->
  Restore.validate m (List.map (fun i => Event.mkTS i c []) ids) = true.
Proof.
  intros Hn Hnew. unfold Restore.validate. apply andb_true_intro. split.
  - apply forallb_forall. intros ts Hin. apply in_map_iff in Hin. destruct Hin as (i & <- & Hi). cbn. rewrite (Hnew i Hi). reflexivity.
  - apply validate_graph_array; [exact Hn | intros i _ []].
Qed.

Lemma array_specs_ids c ids : List.map Event.ts_id (List.map (fun i => Event.mkTS i c []) ids) = ids.
Proof. rewrite map_map. cbn [Event.ts_id]. apply map_id. Qed.

Lemma validate_graph_sys {V} (m : Event.map V) jt ts : forall seen,
  (forall d, Event.mem d m = match jt_find jt d with Some _ => true | None => false end) ->
  Server.validate_graph jt seen ts = None ->
  Restore.validate_graph m seen (List.map spec_of_gtask ts) = true.
Proof.
  intros seen Hm. revert seen. induction ts as [|g r IH]; intros seen H; cbn [List.map Restore.validate_graph]; [reflexivity|].
  cbn [Server.validate_graph] in H. destruct (n_mem (gt_id g) seen) eqn:Es; [discriminate|].
  destruct (find _ (gt_deps g)) eqn:Ef; [discriminate|].
  cbn [spec_of_gtask Event.ts_id Event.ts_deps]. rewrite <- n_mem_memN, Es. cbn [negb andb].
  apply andb_true_intro. split; [|apply IH; exact H].
  apply forallb_forall. intros d Hd. pose proof (find_none _ _ Ef d Hd) as Hx. cbn beta in Hx.
  apply Bool.orb_false_iff in Hx. destruct Hx as [H1 H2]. rewrite H1. cbn [negb andb].
  apply Bool.andb_false_iff in H2. rewrite Hm. rewrite <- n_mem_memN.
  cbn [n_mem] in H2. rewrite H1 in H2. cbn [orb] in H2.
  destruct H2 as [H2|H2]; [apply Bool.negb_false_iff in H2; rewrite H2; reflexivity|].
  destruct (jt_find jt d); [apply Bool.orb_true_r | discriminate].
Qed.

Lemma task_rel_attach jt jt' gt specs :
  task_rel jt gt ->
  (forall t, jt_find jt' t = if Event.memN t (List.map Event.ts_id specs) then Some JW else jt_find jt t) ->
  task_rel jt' (Gen.g_attach gt specs).
Proof. intros H Hjt t. rewrite Hjt, lookup_attach. destruct (Event.memN t _); [reflexivity | apply H]. Qed.

Lemma ev_submit_new h h' specs jb' :
  (forall id, find_job (h_jobs h') id = if N.eqb id (h_counter h) then Some jb' else find_job (h_jobs h) id) ->
  h_counter h' = h_counter h + 1 -> j_open jb' = false -> j_completed jb' = false ->
  (forall t, jt_find (j_tasks jb') t = if Event.memN t (List.map Event.ts_id specs) then Some JW else None) ->
  Restore.validate (@nil (N * Gen.GTask)) specs = true ->
  SimE h [Event.ESubmit (h_counter h) true specs] h'.
Proof.
  intros Hf Hcn Hop Hcm Hjt Hval. apply SimE_one. intros g [HJ HM]. cbn [Gen.gstep].
  replace (Gen.g_max_job g <? h_counter h) with true by lia. rewrite Hval. cbn [andb].
  split; [|cbn; lia]. intros id. rewrite Hf. cbn [Gen.g_jobs]. rewrite Maps.lookup_insert.
  destruct (N.eqb id (h_counter h)); [|exact (HJ id)]. rewrite Hcm. eexists. split; [reflexivity|].
  split; [cbn; congruence|]. split; [cbn; apply nodup_attach; constructor|].
  apply (task_rel_attach [] _ [] specs); [intros t; exact I | exact Hjt].
Qed.

Lemma ev_submit_open h h' jid specs jb jb' :
  find_job (h_jobs h) jid = Some jb -> JOK jb -> j_open jb = true -> UPD h h' jid jb' ->
  j_open jb' = true -> j_completed jb' = false ->
  (forall t, jt_find (j_tasks jb') t = if Event.memN t (List.map Event.ts_id specs) then Some JW else jt_find (j_tasks jb) t) ->
  (forall (m : Event.map Gen.GTask),
      (forall d, Event.mem d m = match jt_find (j_tasks jb) d with Some _ => true | None => false end) -> Restore.validate m specs = true) ->
  SimE h [Event.ESubmit jid false specs] h'.
Proof.
  intros Hfj Hok Hop HU Hop' Hcm Hjt Hval. apply SimE_one. intros g HR. cbn [Gen.gstep].
  destruct (RelJ_job _ _ _ _ HR Hfj (open_not_completed _ Hok Hop)) as (gj & Elj & (Ho & Hn & Ht)). rewrite Elj, Ho, Hop. cbn [andb].
  rewrite (Hval (Gen.gj_tasks gj)).
  2:{ intros d. unfold Event.mem. specialize (Ht d). destruct (jt_find (j_tasks jb) d), (Event.lookup d (Gen.gj_tasks gj)); try reflexivity; contradiction. }
  eapply RelJ_upd1; [exact HR | exact HU | exact Hcm|].
  split; [cbn; congruence|]. split; [cbn; apply nodup_attach; exact Hn|].
  exact (task_rel_attach _ _ _ specs Ht Hjt).
Qed.
