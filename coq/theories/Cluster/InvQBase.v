(** The queue invariant (C02 "no limbo", base of C03), part 1: sorted id lists, the vocabulary
    ([RdyAt] / [PfAt]: where an id sits in a [TaskQueue]; [WFQ]: structural well-formedness of a
    queue) and precise membership specifications of the adding and removing functions of taskqueue.rs. *)
From HQ Require Import Base.Prelude Cluster.Types Cluster.Core Cluster.Reactor Cluster.Worker Cluster.Server Cluster.Sys Cluster.Monitors Cluster.ProofsJob Cluster.ProofsMore Cluster.ProofsStep Cluster.BijBase Cluster.BijCore Cluster.BijHq Cluster.BijSt Cluster.InvDBase.
From HQ Require Import Cluster.ModelFacts.
From Coq Require Import ZArith Lia Sorting.Sorted.
Local Open Scope N_scope.

Arguments N.add : simpl never.
Arguments N.sub : simpl never.

(** The one fact about the worker sets the queue invariant depends on (a consequence of
    [worker_sets_ok]): an id in a worker's ASSIGNED set is never a Prefilled task.  It is needed at
    exactly one place, [lost_assigned], which re-queues every id of the lost worker's assigned set
    without any guard. *)
Definition asg_ok (c : core) : Prop :=
  forall wk a p f id t, In wk (c_workers c) -> w_assign wk = Sn a p f -> tid_mem id a = true ->
    find_task (c_tasks c) id = Some t -> forall w, t_state t <> Prefilled w.

Definition SL (l : list tid) : Prop := StronglySorted tlt l.

Lemma SL_nil : SL [].
Proof. constructor. Qed.
Lemma SL_one x : SL [x].
Proof. constructor; constructor. Qed.
Lemma SL_inv x l : SL (x :: l) -> SL l /\ (forall y, In y l -> tlt x y).
Proof. intros H. inversion H as [|? ? Hs Hall]; subst. rewrite Forall_forall in Hall. auto. Qed.
Lemma SL_cons x l : SL l -> (forall y, In y l -> tlt x y) -> SL (x :: l).
Proof. intros H1 H2. constructor; [exact H1 | rewrite Forall_forall; exact H2]. Qed.
Lemma SL_notin x l : SL (x :: l) -> ~ In x l.
Proof. intros H Hin. destruct (SL_inv _ _ H) as [_ Hlt]. exact (tlt_irrefl _ (Hlt _ Hin)). Qed.
Lemma SL_NoDup l : SL l -> NoDup l.
Proof.
  induction l as [|h t IH]; intros Hs; [constructor|]. constructor; [apply SL_notin; exact Hs | apply IH; apply (SL_inv _ _ Hs)].
Qed.

Lemma tins_iff x l y : In y (tid_insert x l) <-> y = x \/ In y l.
Proof.
  split; [apply tid_insert_in|]. intros [->|H]; [apply tid_insert_has | apply tid_insert_keeps; exact H].
Qed.

Lemma tins_SL x l : SL l -> SL (tid_insert x l).
Proof.
  induction l as [|h t IH]; cbn [tid_insert]; intros Hs; [apply SL_one|].
  destruct (SL_inv _ _ Hs) as [Ht Hlt].
  destruct (tid_eqb x h) eqn:E; [exact Hs|].
  destruct (tid_ltb x h) eqn:L.
  - apply SL_cons; [exact Hs|]. intros y [<-|Hy]; [exact L | eapply tlt_trans; [exact L | apply Hlt; exact Hy]].
  - apply SL_cons; [apply IH; exact Ht|]. intros y Hy. apply tins_iff in Hy. destruct Hy as [->|Hy]; [|apply Hlt; exact Hy].
    apply tlt_total; assumption.
Qed.

Lemma trem_iff x l y : SL l -> (In y (tid_remove x l) <-> In y l /\ y <> x).
Proof.
  induction l as [|h t IH]; cbn [tid_remove]; intros Hs; [cbn; tauto|].
  destruct (SL_inv _ _ Hs) as [Ht Hlt].
  destruct (tid_eqb x h) eqn:E.
  - apply tid_eqb_eq in E. subst h. cbn [In]. split.
    + intros Hy. split; [right; exact Hy|]. intros ->. exact (SL_notin _ _ Hs Hy).
    + intros [[->|Hy] Hne]; [congruence | exact Hy].
  - apply tid_eqb_neq in E. cbn [In]. rewrite (IH Ht). split.
    + intros [<-|[Hy Hne]]; [split; [left; reflexivity | congruence] | split; [right; exact Hy | exact Hne]].
    + intros [[<-|Hy] Hne]; [left; reflexivity | right; split; assumption].
Qed.

Lemma trem_SL x l : SL l -> SL (tid_remove x l).
Proof.
  induction l as [|h t IH]; cbn [tid_remove]; intros Hs; [exact Hs|].
  destruct (SL_inv _ _ Hs) as [Ht Hlt].
  destruct (tid_eqb x h); [exact Ht|].
  apply SL_cons; [apply IH; exact Ht|]. intros y Hy. apply Hlt. eapply tid_remove_incl. exact Hy.
Qed.

Lemma tinsall_SL xs : forall l, SL l -> SL (tid_insert_all xs l).
Proof.
  unfold tid_insert_all. induction xs as [|x r IH]; cbn [fold_left]; intros l Hs; [exact Hs|].
  apply IH. apply tins_SL. exact Hs.
Qed.

Lemma take_n_app {A} n : forall (l a b : list A), take_n n l = (a, b) -> l = a ++ b.
Proof.
  induction n as [|k IH]; intros l a b H.
  - destruct l; cbn in H; inversion H; reflexivity.
  - destruct l as [|h t]; cbn [take_n] in H; [inversion H; reflexivity|].
    destruct (take_n k t) as [a0 b0] eqn:E. inversion H; subst. cbn. f_equal. apply IH. exact E.
Qed.

Lemma SL_app a : forall b, SL (a ++ b) -> SL a /\ SL b /\ (forall x, In x a -> ~ In x b).
Proof.
  induction a as [|h t IH]; cbn [app]; intros b Hs; [split; [apply SL_nil | split; [exact Hs | intros x []]]|].
  destruct (SL_inv _ _ Hs) as [Ht Hlt]. destruct (IH _ Ht) as (I1 & I2 & I3).
  split; [|split; [exact I2|]].
  - apply SL_cons; [exact I1|]. intros y Hy. apply Hlt. apply in_or_app. left. exact Hy.
  - intros x [<-|Hx] Hb; [|exact (I3 _ Hx Hb)].
    apply (tlt_irrefl h). apply Hlt. apply in_or_app. right. exact Hb.
Qed.

Lemma fold_rem_spec a : forall ts, SL ts ->
  SL (fold_left (fun acc x => tid_remove x acc) a ts) /\
  forall y, In y (fold_left (fun acc x => tid_remove x acc) a ts) <-> In y ts /\ ~ In y a.
Proof.
  induction a as [|x r IH]; cbn [fold_left]; intros ts Hs; [split; [exact Hs | intros y; cbn; tauto]|].
  destruct (IH _ (trem_SL x _ Hs)) as [I1 I2]. split; [exact I1|].
  intros y. rewrite I2, (trem_iff x ts y Hs). cbn [In]. split.
  - intros [[H1 H2] H3]. split; [exact H1 | intros [E|E]; [congruence | contradiction]].
  - intros [H1 H2]. split; [split; [exact H1 | intros E; apply H2; left; congruence] | intros E; apply H2; right; exact E].
Qed.

Definition EAt (es : list qentry) (p : Z) (x : tid) : Prop := exists e, In e es /\ qe_prio e = p /\ In x (qe_ids e).
Definition PAt (pf : option (Z * list tid)) (p : Z) (x : tid) : Prop := exists ts, pf = Some (p, ts) /\ In x ts.
Definition RdyAt (q : queue) (p : Z) (x : tid) : Prop := EAt (q_ready q) p x.
Definition PfAt (q : queue) (p : Z) (x : tid) : Prop := PAt (q_prefill q) p x.
Definition member (q : queue) (x : tid) : Prop := exists p, RdyAt q p x \/ PfAt q p x.

Lemma EAt_nil p x : EAt [] p x <-> False.
Proof. split; [intros (e & [] & _) | intros []]. Qed.
Lemma EAt_cons e es p x : EAt (e :: es) p x <-> (qe_prio e = p /\ In x (qe_ids e)) \/ EAt es p x.
Proof.
  unfold EAt. split.
  - intros (e0 & [<-|Hin] & Hp & Hx); [left; auto | right; eauto].
  - intros [[Hp Hx]|(e0 & Hin & Hp & Hx)]; [exists e; split; [left; reflexivity | auto] | exists e0; split; [right; exact Hin | auto]].
Qed.
Lemma PAt_none p x : PAt None p x <-> False.
Proof. split; [intros (ts & H & _); discriminate | intros []]. Qed.
Lemma PAt_some pp ts p x : PAt (Some (pp, ts)) p x <-> p = pp /\ In x ts.
Proof.
  unfold PAt. split.
  - intros (ts0 & H & Hx). inversion H; subst. auto.
  - intros [-> Hx]. eauto.
Qed.

Lemma in_ready_iff q x : in_ready q x = true <-> exists p, RdyAt q p x.
Proof.
  unfold in_ready, RdyAt, EAt. rewrite existsb_exists. split.
  - intros (e & Hin & Hm). apply tid_mem_In in Hm. exists (qe_prio e), e. auto.
  - intros (p & e & Hin & _ & Hx). exists e. split; [exact Hin | apply tid_mem_In; exact Hx].
Qed.
Lemma in_prefill_iff q x : in_prefill q x = true <-> exists p, PfAt q p x.
Proof.
  unfold in_prefill, PfAt. destruct (q_prefill q) as [[pp ts]|].
  - rewrite tid_mem_In. split; [intros H; exists pp; apply PAt_some; auto | intros (p & H); apply PAt_some in H; apply H].
  - split; [discriminate | intros (p & H); apply PAt_none in H; contradiction].
Qed.

Definition eok (e : qentry) : Prop := SL (qe_ids e) /\ (qe_more e = false -> exists x, qe_ids e = [x]).
Definition below (P : Z) (es : list qentry) : Prop := Forall (fun b => (qe_prio b < P)%Z) es.
Fixpoint desc (es : list qentry) : Prop :=
  match es with [] => True | e :: t => below (qe_prio e) t /\ desc t end.
Definition WFE (es : list qentry) : Prop := desc es /\ Forall eok es.
Definition WFP (pf : option (Z * list tid)) : Prop := match pf with Some (_, ts) => SL ts | None => True end.
Definition WFQ (q : queue) : Prop := WFE (q_ready q) /\ WFP (q_prefill q).

Lemma WFE_nil : WFE [].
Proof. split; [exact I | constructor]. Qed.
Lemma WFE_inv e es : WFE (e :: es) -> eok e /\ below (qe_prio e) es /\ WFE es.
Proof. intros [[B D] F]. inversion F; subst. split; [assumption | split; [exact B | split; assumption]]. Qed.
Lemma WFE_cons e es : eok e -> below (qe_prio e) es -> WFE es -> WFE (e :: es).
Proof. intros He Hb [D F]. split; [split; assumption | constructor; assumption]. Qed.
Lemma below_EAt P es p x : below P es -> EAt es p x -> (p < P)%Z.
Proof. intros B (e & Hin & <- & _). unfold below in B. rewrite Forall_forall in B. apply B. exact Hin. Qed.
Lemma below_lt P P' es : below P es -> (P <= P')%Z -> below P' es.
Proof. unfold below. rewrite !Forall_forall. intros B L b Hb. specialize (B b Hb). lia. Qed.
Lemma WFE_head_notin e es p x : WFE (e :: es) -> EAt es p x -> p <> qe_prio e.
Proof. intros H Hx. destruct (WFE_inv _ _ H) as (_ & B & _). pose proof (below_EAt _ _ _ _ B Hx). lia. Qed.

Lemma WFQ_mk es pf : WFE es -> WFP pf -> WFQ (mkQ es pf).
Proof. intros; split; assumption. Qed.
Lemma WFQ_empty : WFQ empty_queue.
Proof. split; [apply WFE_nil | exact I]. Qed.

Lemma qe_add_below P es id p : below P es -> (p < P)%Z -> below P (qe_add es id p).
Proof.
  unfold below. induction es as [|e t IH]; cbn [qe_add]; intros B L; [constructor; [exact L | constructor]|].
  inversion B; subst.
  destruct (Z.eqb (qe_prio e) p); [constructor; [exact L | assumption]|].
  destruct (Z.ltb (qe_prio e) p); [constructor; [exact L | exact B]|].
  constructor; [assumption | apply IH; assumption].
Qed.

Lemma qe_add_spec es id p : WFE es ->
  WFE (qe_add es id p) /\ forall p' x, EAt (qe_add es id p) p' x <-> EAt es p' x \/ (x = id /\ p' = p).
Proof.
  induction es as [|e t IH]; cbn [qe_add]; intros W.
  - split.
    + apply WFE_cons; [split; [apply SL_one | intros _; exists id; reflexivity] | constructor | apply WFE_nil].
    + intros p' x. rewrite EAt_cons, !EAt_nil. cbn. intuition (subst; auto).
  - destruct (WFE_inv _ _ W) as (He & B & Wt).
    destruct (Z.eqb (qe_prio e) p) eqn:E1.
    + apply Z.eqb_eq in E1. split.
      * apply WFE_cons; [split; [apply tins_SL; apply He | discriminate] | cbn; rewrite <- E1; exact B | exact Wt].
      * intros p' x. rewrite !EAt_cons. cbn [qe_prio qe_ids]. rewrite tins_iff. subst p. intuition (subst; auto).
    + apply Z.eqb_neq in E1. destruct (Z.ltb (qe_prio e) p) eqn:E2.
      * apply Z.ltb_lt in E2. split.
        -- apply WFE_cons; [split; [apply SL_one | intros _; exists id; reflexivity] | | exact W].
           cbn. constructor; [exact E2 | eapply below_lt; [exact B | lia]].
        -- intros p' x. rewrite (EAt_cons (mkQE p false [id])). cbn. intuition (subst; auto).
      * apply Z.ltb_ge in E2. destruct (IH Wt) as [I1 I2]. split.
        -- apply WFE_cons; [exact He | apply qe_add_below; [exact B | lia] | exact I1].
        -- intros p' x. rewrite !EAt_cons, I2. tauto.
Qed.

Lemma q_add_spec q id p : WFQ q ->
  WFQ (q_add q id p) /\ (forall p' x, RdyAt (q_add q id p) p' x <-> RdyAt q p' x \/ (x = id /\ p' = p)) /\
  (forall p' x, PfAt (q_add q id p) p' x <-> PfAt q p' x).
Proof.
  intros [W1 W2]. destruct (qe_add_spec _ id p W1) as [A1 A2].
  split; [split; assumption | split; [exact A2 | intros; reflexivity]].
Qed.

Lemma qe_add_many_below P es ids p : below P es -> (p < P)%Z -> below P (qe_add_many es ids p).
Proof.
  unfold below. induction es as [|e t IH]; cbn [qe_add_many]; intros B L; [constructor; [exact L | constructor]|].
  inversion B; subst.
  destruct (Z.eqb (qe_prio e) p); [constructor; [exact L | assumption]|].
  destruct (Z.ltb (qe_prio e) p); [constructor; [exact L | exact B]|].
  constructor; [assumption | apply IH; assumption].
Qed.

Lemma qe_add_many_spec es ids p : WFE es -> SL ids ->
  WFE (qe_add_many es ids p) /\ forall p' x, EAt (qe_add_many es ids p) p' x <-> EAt es p' x \/ (In x ids /\ p' = p).
Proof.
  intros W Hs. induction es as [|e t IH]; cbn [qe_add_many].
  - split.
    + apply WFE_cons; [split; [exact Hs | discriminate] | constructor | apply WFE_nil].
    + intros p' x. rewrite EAt_cons, !EAt_nil. cbn. intuition (subst; auto).
  - destruct (WFE_inv _ _ W) as (He & B & Wt).
    destruct (Z.eqb (qe_prio e) p) eqn:E1.
    + apply Z.eqb_eq in E1. split.
      * apply WFE_cons; [split; [apply tinsall_SL; apply He | discriminate] | cbn; rewrite <- E1; exact B | exact Wt].
      * intros p' x. rewrite !EAt_cons. cbn [qe_prio qe_ids]. rewrite tid_insert_all_iff. subst p. intuition (subst; auto).
    + apply Z.eqb_neq in E1. destruct (Z.ltb (qe_prio e) p) eqn:E2.
      * apply Z.ltb_lt in E2. split.
        -- apply WFE_cons; [split; [exact Hs | discriminate] | | exact W].
           cbn. constructor; [exact E2 | eapply below_lt; [exact B | lia]].
        -- intros p' x. rewrite (EAt_cons (mkQE p true ids)). cbn. intuition (subst; auto).
      * apply Z.ltb_ge in E2. destruct (IH Wt) as [I1 I2]. split.
        -- apply WFE_cons; [exact He | apply qe_add_many_below; [exact B | lia] | exact I1].
        -- intros p' x. rewrite !EAt_cons, I2. tauto.
Qed.

Lemma q_cdp_spec q p q' r : WFQ q -> q_check_dispose_prefill q p = (q', r) ->
  WFQ q' /\
  ((q' = q /\ r = []) \/
   (exists pp, q_prefill q = Some (pp, r) /\ q_prefill q' = None /\
      forall p' x, RdyAt q' p' x <-> RdyAt q p' x \/ (In x r /\ p' = pp))).
Proof.
  intros [W1 W2] H. unfold q_check_dispose_prefill in H.
  destruct (q_prefill q) as [[pp ts]|] eqn:Ep; [|inversion H; subst; split; [split; [exact W1 | rewrite Ep; exact I] | left; auto]].
  destruct (Z.ltb pp p); [|inversion H; subst; split; [split; [exact W1 | rewrite Ep; exact W2] | left; auto]].
  inversion H; subst. clear H. unfold q_add_many. destruct r as [|r0 rr] eqn:Er.
  - split; [split; [exact W1 | exact I]|]. right. exists pp. split; [reflexivity | split; [reflexivity|]].
    intros p' x. cbn. unfold RdyAt. cbn. tauto.
  - rewrite <- Er in *. destruct (qe_add_many_spec (q_ready q) r pp W1 W2) as [A1 A2].
    split; [split; [exact A1 | exact I]|]. right. exists pp. split; [reflexivity | split; [reflexivity|]].
    intros p' x. unfold RdyAt. cbn. apply A2.
Qed.

Lemma qe_remove_below P es id p es' : below P es -> qe_remove es id p = Ok es' -> below P es'.
Proof.
  unfold below. revert es'. induction es as [|e t IH]; cbn [qe_remove]; intros es' B H; [inversion H; constructor|].
  inversion B; subst.
  destruct (Z.eqb (qe_prio e) p) eqn:E1.
  - apply Z.eqb_eq in E1. destruct (qe_more e).
    + destruct (tid_remove id (qe_ids e)); inversion H; subst; [assumption | constructor; [cbn; lia | assumption]].
    + destruct (tid_mem id (qe_ids e)); inversion H; subst. assumption.
  - apply bind_ok in H. destruct H as (t' & Ht & H). inversion H; subst. constructor; [assumption | apply IH; assumption].
Qed.

Lemma qe_remove_spec es id p : forall es', WFE es -> qe_remove es id p = Ok es' ->
  WFE es' /\ forall p' x, EAt es' p' x <-> EAt es p' x /\ ~ (x = id /\ p' = p).
Proof.
  induction es as [|e t IH]; cbn [qe_remove]; intros es' W H.
  - inversion H; subst. split; [apply WFE_nil|]. intros p' x. rewrite EAt_nil. tauto.
  - destruct (WFE_inv _ _ W) as (He & B & Wt).
    assert (Hnot : forall p' x, EAt t p' x -> p' <> qe_prio e) by (intros p' x Hx; eapply WFE_head_notin; eassumption).
    destruct (Z.eqb (qe_prio e) p) eqn:E1.
    + apply Z.eqb_eq in E1. destruct (qe_more e) eqn:Em.
      * pose proof (trem_iff id (qe_ids e)) as R. pose proof (trem_SL id _ (proj1 He)) as RS.
        destruct (tid_remove id (qe_ids e)) as [|r0 rr] eqn:Er; inversion H; subst; clear H.
        -- split; [exact Wt|]. intros p' x. rewrite EAt_cons. split.
           ++ intros Hx. split; [right; exact Hx|]. intros [_ ->]. exact (Hnot _ _ Hx eq_refl).
           ++ intros [[[Hp Hx]|Hx] Hn]; [|exact Hx]. exfalso. specialize (R x (proj1 He)). cbn in R.
              apply R. split; [exact Hx|]. intros ->. apply Hn. auto.
        -- split; [apply WFE_cons; [split; [exact RS | discriminate] | exact B | exact Wt]|].
           intros p' x. rewrite !EAt_cons. cbn [qe_prio qe_ids]. rewrite (R x (proj1 He)). split.
           ++ intros [[Hp [Hx Hne]]|Hx]; [split; [left; auto | intros [-> _]; congruence]|].
              split; [right; exact Hx | intros [_ ->]; exact (Hnot _ _ Hx eq_refl)].
           ++ intros [[[Hp Hx]|Hx] Hn]; [left; split; [exact Hp | split; [exact Hx | intros ->; apply Hn; auto]] | right; exact Hx].
      * destruct (tid_mem id (qe_ids e)) eqn:Ei; inversion H; subst; clear H.
        destruct (proj2 He Em) as (y & Ey). rewrite Ey in Ei. cbn in Ei. rewrite orb_false_r in Ei. apply tid_eqb_eq in Ei. subst y.
        split; [exact Wt|]. intros p' x. rewrite EAt_cons, Ey. cbn [In]. split.
        -- intros Hx. split; [right; exact Hx|]. intros [_ ->]. exact (Hnot _ _ Hx eq_refl).
        -- intros [[[Hp [Hx|[]]]|Hx] Hn]; [exfalso; apply Hn; auto | exact Hx].
    + apply Z.eqb_neq in E1. apply bind_ok in H. destruct H as (t' & Ht & H). inversion H; subst; clear H.
      destruct (IH _ Wt Ht) as [I1 I2]. split.
      * apply WFE_cons; [exact He | eapply qe_remove_below; eassumption | exact I1].
      * intros p' x. rewrite !EAt_cons, I2. split.
        -- intros [[Hp Hx]|[Hx Hn]]; [split; [left; auto | intros [_ ->]; congruence] | split; [right; exact Hx | exact Hn]].
        -- intros [[Hx|Hx] Hn]; [left; exact Hx | right; split; assumption].
Qed.

(** [q_remove]: the branch taken is decided by where the id is. *)
Lemma q_remove_spec q id p q' : WFQ q -> q_remove q id p = Ok q' ->
  WFQ q' /\
  ((PfAt q p id /\ (forall p' x, RdyAt q' p' x <-> RdyAt q p' x) /\ (forall p' x, PfAt q' p' x <-> PfAt q p' x /\ x <> id)) \/
   (~ PfAt q p id /\ (forall p' x, RdyAt q' p' x <-> RdyAt q p' x /\ ~ (x = id /\ p' = p)) /\ (forall p' x, PfAt q' p' x <-> PfAt q p' x))).
Proof.
  intros [W1 W2] H. unfold q_remove in H. unfold PfAt, RdyAt.
  destruct (q_prefill q) as [[pp ts]|] eqn:Ep.
  - destruct (Z.eqb p pp && tid_mem id ts) eqn:Eb.
    + apply andb_true_iff in Eb. destruct Eb as [Eb1 Eb2]. apply Z.eqb_eq in Eb1. apply tid_mem_In in Eb2. subst pp.
      inversion H; subst; clear H. cbn [q_ready q_prefill]. split; [split; [exact W1 | cbn; apply trem_SL; exact W2]|].
      left. split; [apply PAt_some; auto|]. split; [intros; reflexivity|].
      intros p' x. rewrite !PAt_some, (trem_iff id ts x W2). tauto.
    + apply bind_ok in H. destruct H as (r & Hr & H). inversion H; subst; clear H. cbn [q_ready q_prefill].
      destruct (qe_remove_spec _ _ _ _ W1 Hr) as [R1 R2]. split; [split; [exact R1 | exact W2]|].
      right. split; [|split; [exact R2 | intros; reflexivity]].
      rewrite PAt_some. intros [E Hin]. subst pp. apply tid_mem_In in Hin. rewrite Hin, Z.eqb_refl in Eb. discriminate.
  - apply bind_ok in H. destruct H as (r & Hr & H). inversion H; subst; clear H. cbn [q_ready q_prefill].
    destruct (qe_remove_spec _ _ _ _ W1 Hr) as [R1 R2]. split; [split; [exact R1 | exact I]|].
    right. split; [rewrite PAt_none; tauto | split; [exact R2 | intros; reflexivity]].
Qed.

Lemma q_remove_prefilled_spec q id q' : WFQ q -> q_remove_prefilled q id = Ok q' ->
  WFQ q' /\ (exists p, PfAt q p id) /\
  (forall p' x, RdyAt q' p' x <-> RdyAt q p' x) /\ (forall p' x, PfAt q' p' x <-> PfAt q p' x /\ x <> id).
Proof.
  intros [W1 W2] H. unfold q_remove_prefilled in H. unfold PfAt, RdyAt.
  destruct (q_prefill q) as [[pp ts]|] eqn:Ep; [|discriminate].
  destruct (tid_mem id ts) eqn:Ei; [|discriminate]. apply tid_mem_In in Ei.
  pose proof (trem_iff id ts) as R. pose proof (trem_SL id ts W2) as RS.
  assert (Hex : exists p, PAt (Some (pp, ts)) p id) by (exists pp; apply PAt_some; auto).
  destruct (tid_remove id ts) as [|r0 rr] eqn:Er; inversion H; subst; clear H; cbn [q_ready q_prefill].
  - split; [split; [exact W1 | exact I]|]. split; [exact Hex|]. split; [intros; reflexivity|].
    intros p' x. rewrite PAt_none, PAt_some. split; [tauto|]. intros [[_ Hx] Hne]. apply (R x W2). auto.
  - split; [split; [exact W1 | exact RS]|]. split; [exact Hex|]. split; [intros; reflexivity|].
    intros p' x. rewrite !PAt_some, (R x W2). tauto.
Qed.

Lemma q_move_as_remove q id q' : q_move_prefilled_to_ready q id = Ok q' ->
  exists pp q1, PfAt q pp id /\ q_remove_prefilled q id = Ok q1 /\ q' = q_add q1 id pp.
Proof.
  unfold q_move_prefilled_to_ready, q_remove_prefilled, PfAt. destruct (q_prefill q) as [[pp ts]|]; [|discriminate].
  destruct (tid_mem id ts) eqn:Ei; [|discriminate]. apply tid_mem_In in Ei. intros H. inversion H; subst q'.
  exists pp. destruct (tid_remove id ts); eexists; (split; [apply PAt_some; auto | split; reflexivity]).
Qed.

Lemma q_move_spec q id q' : WFQ q -> q_move_prefilled_to_ready q id = Ok q' ->
  WFQ q' /\ exists pp, PfAt q pp id /\
  (forall p' x, RdyAt q' p' x <-> RdyAt q p' x \/ (x = id /\ p' = pp)) /\
  (forall p' x, PfAt q' p' x <-> PfAt q p' x /\ x <> id).
Proof.
  intros W H. destruct (q_move_as_remove _ _ _ H) as (pp & q1 & Hin & Hr & ->).
  destruct (q_remove_prefilled_spec _ _ _ W Hr) as (W1 & _ & R1 & P1).
  destruct (q_add_spec q1 id pp W1) as (A1 & A2 & A3).
  split; [exact A1|]. exists pp. split; [exact Hin|]. split; intros p' x.
  - rewrite A2, R1. reflexivity.
  - rewrite A3. apply P1.
Qed.

Lemma set_queue_length qs : forall i q, length (set_queue qs i q) = length qs.
Proof. induction qs as [|h t IH]; intros i q; [destruct i; reflexivity|]. destruct i; cbn; [reflexivity | rewrite IH; reflexivity]. Qed.

Lemma nth_set_queue_same qs : forall i q q0, nth_error qs i = Some q0 -> nth_error (set_queue qs i q) i = Some q.
Proof.
  induction qs as [|h t IH]; intros i q q0 H; [destruct i; discriminate|].
  destruct i as [|k]; cbn in *; [reflexivity | eapply IH; exact H].
Qed.
Lemma nth_set_queue_other qs : forall i j q, i <> j -> nth_error (set_queue qs i q) j = nth_error qs j.
Proof.
  induction qs as [|h t IH]; intros i j q H; [destruct i; reflexivity|].
  destruct i as [|k], j as [|l]; cbn; try reflexivity; [congruence|]. apply IH. congruence.
Qed.
Lemma nth_error_Forall {A} (P : A -> Prop) l i x : Forall P l -> nth_error l i = Some x -> P x.
Proof. intros F H. rewrite Forall_forall in F. apply F. eapply nth_error_In; exact H. Qed.
Lemma nth_error_ex {A} (l : list A) i : (i < length l)%nat -> exists x, nth_error l i = Some x.
Proof. intros H. destruct (nth_error l i) eqn:E; [eauto|]. apply nth_error_None in E. lia. Qed.
Lemma nth_error_lt {A} (l : list A) i x : nth_error l i = Some x -> (i < length l)%nat.
Proof. intros H. apply nth_error_Some. congruence. Qed.
