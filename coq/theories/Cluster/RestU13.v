(** C02 "at rest": the statement in the form of the driver's monitor
    [task-in-limbo-at-rest] (ocaml/cluster/driver.ml), and two corollaries. *)
From HQ Require Import Base.Prelude Cluster.Types Cluster.Core Cluster.Reactor Cluster.Sys Cluster.BijCore Cluster.BijReact Cluster.BijFinal Cluster.InvWBase Cluster.InvQInv Cluster.InvQStep Cluster.InvBundle Cluster.NoPanicL1 Cluster.NoPanicU0 Cluster.NoPanicU1 Cluster.NoPanicU2 Cluster.NoPanicU20 Cluster.RestU1 Cluster.RestU12.
From HQ Require Import Cluster.ModelFacts.
From Coq Require Import ZArith.
Local Open Scope N_scope.

(** the driver's "at rest": the scheduler flag is off, there is a worker, no message is in flight
    and no future is pending *)
Definition at_rest_mon (s : sys) : bool :=
  negb (c_flag (s_core s)) && negb (is_nilb (s_procs s)) &&
  forallb (fun p => is_nilb (p_down p) && is_nilb (p_up p) && is_nilb (p_futures p)) (s_procs s).

Definition is_waitingb (t : task) : bool := match t_state t with Waiting _ => true | _ => false end.
(** the driver's check *)
Definition all_waiting (s : sys) : bool := forallb is_waitingb (c_tasks (s_core s)).
(** the check that holds without an assumption on the backlogs *)
Definition waiting_or_backlog (s : sys) : bool :=
  forallb (fun t => match t_state t with
                    | Waiting _ => true
                    | Prefilled w => match find_proc (s_procs s) w with
                                     | Some p => Nat.eqb (bl_count (t_id t) (p_backlog p)) 1
                                     | None => false
                                     end
                    | _ => false
                    end) (c_tasks (s_core s)).

Lemma at_rest_mon_rest s : PROTO s -> at_rest_mon s = true -> at_rest s.
Proof.
  intros HP H. unfold at_rest_mon in H. rewrite !andb_true_iff, negb_true_iff, forallb_forall in H. destruct H as [[Hf _] Hq].
  split; [exact Hf|]. intros p Hp. specialize (Hq p Hp). rewrite !andb_true_iff in Hq. destruct Hq as [[A B] C].
  pose proof (proj1 (local_ok_LOK _) (pr_local _ HP _ _ (in_find_proc _ _ (pr_sorted _ HP) Hp))) as HL.
  pose proof (lok_fut _ HL) as Ef.
  unfold quiet_proc. destruct (p_down p), (p_up p), (p_futures p); try discriminate. cbn [map] in Ef. symmetry in Ef. apply map_eq_nil in Ef.
  repeat split; auto.
Qed.

Theorem at_rest_monitor_honest ops reserve maxfill s outs :
  Forall op_wf ops -> ops_ok (init_sys reserve maxfill) ops = true -> run (init_sys reserve maxfill) ops = Ok (s, outs) ->
  at_rest_mon s = true -> waiting_or_backlog s = true.
Proof.
  intros Hwf Hok H Hm. pose proof (proj1 (reachable_PROTO _ _ _ _ _ Hwf Hok H)) as HP. pose proof (at_rest_mon_rest s HP Hm) as Hrest.
  pose proof (reachable_INV_ops _ _ _ _ _ Hwf Hok H) as HI. pose proof (cb_s _ (inv_cb _ HI)) as Hcs. change (core_of (s, [])) with (s_core s) in Hcs.
  unfold waiting_or_backlog. apply forallb_forall. intros t Hin.
  pose proof (in_find_task _ _ (CS_sorted _ Hcs) Hin) as Hf.
  pose proof (at_rest_waiting_or_backlog _ _ _ _ _ Hwf Hok H Hrest _ _ Hf) as X. unfold rest_state in X.
  destruct (t_state t) as [n|w1 rv1|w1|w1|w1 rv1|ws|]; try contradiction; [reflexivity|].
  destruct X as (p & Hp & Hb). rewrite Hp, Hb. reflexivity.
Qed.

Theorem at_rest_monitor ops reserve maxfill s outs :
  Forall op_wf ops -> ops_ok (init_sys reserve maxfill) ops = true -> run (init_sys reserve maxfill) ops = Ok (s, outs) ->
  at_rest_mon s = true -> forallb (fun p => is_nilb (p_backlog p)) (s_procs s) = true -> all_waiting s = true.
Proof.
  intros Hwf Hok H Hm Hb. pose proof (proj1 (reachable_PROTO _ _ _ _ _ Hwf Hok H)) as HP. pose proof (at_rest_mon_rest s HP Hm) as Hrest.
  unfold all_waiting. apply forallb_forall. intros t Hin.
  assert (Hbl : forall p, In p (s_procs s) -> p_backlog p = []).
  { intros p Hp. rewrite forallb_forall in Hb. specialize (Hb p Hp). destruct (p_backlog p); [reflexivity | discriminate]. }
  destruct (at_rest_all_waiting _ _ _ _ _ Hwf Hok H Hrest Hbl t Hin) as (n & E). unfold is_waitingb. rewrite E. reflexivity.
Qed.

Theorem at_rest_no_redirects ops reserve maxfill s outs :
  Forall op_wf ops -> ops_ok (init_sys reserve maxfill) ops = true -> run (init_sys reserve maxfill) ops = Ok (s, outs) ->
  at_rest s -> c_redirects (s_core s) = [].
Proof.
  intros Hwf Hok H Hrest. pose proof (reachable_INV_ops _ _ _ _ _ Hwf Hok H) as HI.
  destruct (c_redirects (s_core s)) as [|[k v] r] eqn:E; [reflexivity|]. exfalso.
  pose proof (inv_q _ HI) as HQ. unfold QInv, QI in HQ.
  destruct (qv_red _ _ _ _ _ _ HQ k v) as (_ & t & w & Hf & Hst); [rewrite E; cbn [find_redirect]; rewrite tid_eqb_refl; reflexivity|].
  pose proof (at_rest_waiting_or_backlog _ _ _ _ _ Hwf Hok H Hrest _ _ Hf) as X. unfold rest_state in X. rewrite Hst in X. exact X.
Qed.

Theorem at_rest_no_assigned ops reserve maxfill s outs :
  Forall op_wf ops -> ops_ok (init_sys reserve maxfill) ops = true -> run (init_sys reserve maxfill) ops = Ok (s, outs) ->
  at_rest s -> forall w wk a p f, find_worker (c_workers (s_core s)) w = Some wk -> w_assign wk = Sn a p f -> a = [].
Proof.
  intros Hwf Hok H Hrest w wk a p f Hw Ea. pose proof (reachable_INV_ops _ _ _ _ _ Hwf Hok H) as HI.
  destruct a as [|id r]; [reflexivity|]. exfalso.
  destruct (WI_inA_task _ _ _ _ _ _ id (inv_w _ HI) Hw Ea) as (t & Hf & Hst); [cbn [tid_mem]; rewrite tid_eqb_refl; reflexivity|].
  pose proof (at_rest_waiting_or_backlog _ _ _ _ _ Hwf Hok H Hrest _ _ Hf) as X. unfold rest_state in X.
  destruct Hst as [(rv & E)|[(rv & E)|(w1 & v & E & _)]]; rewrite E in X; exact X.
Qed.
