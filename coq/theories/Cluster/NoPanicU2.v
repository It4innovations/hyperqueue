(** Protocol invariant, part 2: worker-local data structures - the three maps keyed by task id
    (running / allocations / futures), the backlog and the counting of a task in it, the local
    status [local] under the primitive updates. *)
From HQ Require Import Base.Prelude Cluster.Types Cluster.Core Cluster.Reactor Cluster.Worker Cluster.Server Cluster.Sys Cluster.NoPanicU0 Cluster.NoPanicU1.
From HQ Require Import Cluster.ModelFacts.
From Coq Require Import ZArith Lia Sorting.Sorted.
Local Open Scope N_scope.

Fixpoint kset (l : list tid) (t : tid) : list tid :=
  match l with
  | [] => [t]
  | k :: r => if tid_eqb t k then t :: r else if tid_ltb t k then t :: l else k :: kset r t
  end.
Fixpoint kdel (l : list tid) (t : tid) : list tid :=
  match l with [] => [] | k :: r => if tid_eqb t k then r else k :: kdel r t end.

Lemma run_set_keys l t v : map fst (run_set l t v) = kset (map fst l) t.
Proof.
  induction l as [|[k v0] r IH]; cbn [run_set map fst kset]; [reflexivity|].
  destruct (tid_eqb t k); [reflexivity|]. destruct (tid_ltb t k); [reflexivity|]. cbn [map fst]. rewrite IH. reflexivity.
Qed.
Lemma al_set_keys l t v : map fst (al_set l t v) = kset (map fst l) t.
Proof.
  induction l as [|[k v0] r IH]; cbn [al_set map fst kset]; [reflexivity|].
  destruct (tid_eqb t k); [reflexivity|]. destruct (tid_ltb t k); [reflexivity|]. cbn [map fst]. rewrite IH. reflexivity.
Qed.
Lemma fu_set_keys l t v : map fst (fu_set l t v) = kset (map fst l) t.
Proof.
  induction l as [|[k v0] r IH]; cbn [fu_set map fst kset]; [reflexivity|].
  destruct (tid_eqb t k); [reflexivity|]. destruct (tid_ltb t k); [reflexivity|]. cbn [map fst]. rewrite IH. reflexivity.
Qed.
Lemma run_del_keys {V} (l : list (tid * V)) t : map fst (run_del l t) = kdel (map fst l) t.
Proof.
  induction l as [|[k v0] r IH]; cbn [run_del map fst kdel]; [reflexivity|].
  destruct (tid_eqb t k); [reflexivity|]. cbn [map fst]. rewrite IH. reflexivity.
Qed.

Lemma kset_in l t y : In y (kset l t) -> y = t \/ In y l.
Proof.
  induction l as [|k r IH]; cbn [kset In]; [intros [H|[]]; auto|].
  destruct (tid_eqb t k); cbn [In]; [intros [H|H]; auto|].
  destruct (tid_ltb t k); cbn [In]; [intros [H|[H|H]]; auto|].
  intros [H|H]; [auto|]. destruct (IH H); auto.
Qed.
Lemma kset_sorted l t : StronglySorted tlt l -> StronglySorted tlt (kset l t).
Proof.
  induction l as [|k r IH]; cbn [kset]; intros Hs; [constructor; constructor|].
  inversion Hs as [|? ? Hs' Hall]; subst.
  destruct (tid_eqb t k) eqn:E1.
  - apply tid_eqb_eq in E1. subst k. exact Hs.
  - destruct (tid_ltb t k) eqn:E2.
    + constructor; [exact Hs|]. constructor; [exact E2|].
      rewrite Forall_forall in *. intros y Hy. eapply tlt_trans; [exact E2 | apply Hall; exact Hy].
    + constructor; [apply IH; exact Hs'|]. rewrite Forall_forall in *. intros y Hy.
      destruct (kset_in _ _ _ Hy) as [->|Hy']; [|apply Hall; exact Hy']. apply tlt_total; assumption.
Qed.
Lemma kdel_incl l t y : In y (kdel l t) -> In y l.
Proof.
  induction l as [|k r IH]; cbn [kdel In]; [auto|].
  destruct (tid_eqb t k); [intros H; right; exact H|]. cbn [In]. intros [H|H]; auto.
Qed.
Lemma kdel_sorted l t : StronglySorted tlt l -> StronglySorted tlt (kdel l t).
Proof.
  induction l as [|k r IH]; cbn [kdel]; intros Hs; [constructor|].
  inversion Hs as [|? ? Hs' Hall]; subst. destruct (tid_eqb t k); [exact Hs'|].
  constructor; [apply IH; exact Hs'|]. rewrite Forall_forall in *. intros y Hy. apply Hall. eapply kdel_incl; exact Hy.
Qed.
Lemma kdel_not_in l t : StronglySorted tlt l -> ~ In t (kdel l t).
Proof.
  induction l as [|k r IH]; cbn [kdel]; intros Hs; [intros []|].
  inversion Hs as [|? ? Hs' Hall]; subst. destruct (tid_eqb t k) eqn:E.
  - apply tid_eqb_eq in E. subst k. intros Hin. rewrite Forall_forall in Hall. exact (tlt_irrefl _ (Hall _ Hin)).
  - intros [H|H]; [subst; rewrite tid_eqb_refl in E; discriminate | exact (IH Hs' H)].
Qed.
Lemma kdel_in l t y : y <> t -> In y l -> In y (kdel l t).
Proof.
  intros Hne. induction l as [|k r IH]; cbn [kdel In]; [auto|].
  destruct (tid_eqb t k) eqn:E.
  - apply tid_eqb_eq in E. subst k. intros [H|H]; [congruence | exact H].
  - cbn [In]. intros [H|H]; auto.
Qed.
Lemma kset_has l t : In t (kset l t).
Proof.
  induction l as [|k r IH]; cbn [kset]; [left; reflexivity|].
  destruct (tid_eqb t k); [left; reflexivity|]. destruct (tid_ltb t k); [left; reflexivity | right; exact IH].
Qed.
Lemma kset_keep l t y : In y l -> In y (kset l t).
Proof.
  induction l as [|k r IH]; cbn [kset In]; [intros []|].
  destruct (tid_eqb t k) eqn:E.
  - apply tid_eqb_eq in E. subst k. cbn [In]. auto.
  - destruct (tid_ltb t k); cbn [In]; [auto|]. intros [H|H]; auto.
Qed.

Lemma run_find_set l t v x : run_find (run_set l t v) x = if tid_eqb x t then Some v else run_find l x.
Proof.
  induction l as [|[k v0] r IH]; cbn [run_set run_find]; [reflexivity|].
  destruct (tid_eqb t k) eqn:E1.
  - apply tid_eqb_eq in E1. subst k. cbn [run_find]. destruct (tid_eqb x t); reflexivity.
  - destruct (tid_ltb t k); cbn [run_find]; [reflexivity|].
    destruct (tid_eqb x k) eqn:E2.
    + apply tid_eqb_eq in E2. subst x. rewrite tid_eqb_sym, E1. reflexivity.
    + exact IH.
Qed.
Lemma al_find_set l t v x : al_find (al_set l t v) x = if tid_eqb x t then Some v else al_find l x.
Proof.
  induction l as [|[k v0] r IH]; cbn [al_set al_find]; [reflexivity|].
  destruct (tid_eqb t k) eqn:E1.
  - apply tid_eqb_eq in E1. subst k. cbn [al_find]. destruct (tid_eqb x t); reflexivity.
  - destruct (tid_ltb t k); cbn [al_find]; [reflexivity|].
    destruct (tid_eqb x k) eqn:E2.
    + apply tid_eqb_eq in E2. subst x. rewrite tid_eqb_sym, E1. reflexivity.
    + exact IH.
Qed.
Lemma run_find_none l x : run_find l x = None <-> ~ In x (map fst l).
Proof.
  induction l as [|[k v] r IH]; cbn [run_find map fst In]; [tauto|].
  destruct (tid_eqb x k) eqn:E.
  - apply tid_eqb_eq in E. subst k. split; [discriminate | intros H; exfalso; apply H; auto].
  - apply tid_eqb_neq in E. rewrite IH. split; [intros H [X|X]; [congruence | auto] | intros H X; apply H; auto].
Qed.
Lemma al_find_none l x : al_find l x = None <-> ~ In x (map fst l).
Proof.
  induction l as [|[k v] r IH]; cbn [al_find map fst In]; [tauto|].
  destruct (tid_eqb x k) eqn:E.
  - apply tid_eqb_eq in E. subst k. split; [discriminate | intros H; exfalso; apply H; auto].
  - apply tid_eqb_neq in E. rewrite IH. split; [intros H [X|X]; [congruence | auto] | intros H X; apply H; auto].
Qed.
Lemma fu_find_none l x : fu_find l x = None <-> ~ In x (map fst l).
Proof.
  induction l as [|[k v] r IH]; cbn [fu_find map fst In]; [tauto|].
  destruct (tid_eqb x k) eqn:E.
  - apply tid_eqb_eq in E. subst k. split; [discriminate | intros H; exfalso; apply H; auto].
  - apply tid_eqb_neq in E. rewrite IH. split; [intros H [X|X]; [congruence | auto] | intros H X; apply H; auto].
Qed.
Lemma al_find_in l x v : al_find l x = Some v -> In (x, v) l.
Proof.
  induction l as [|[k v0] r IH]; cbn [al_find]; [discriminate|].
  destruct (tid_eqb x k) eqn:E; [apply tid_eqb_eq in E; subst; intros H; inversion H; left; reflexivity | intros H; right; auto].
Qed.
Lemma run_find_del l t x : StronglySorted tlt (map fst l) ->
  run_find (run_del l t) x = if tid_eqb x t then None else run_find l x.
Proof.
  intros Hs. destruct (tid_eqb x t) eqn:E.
  - apply tid_eqb_eq in E. subst x. apply run_find_none. rewrite run_del_keys. apply kdel_not_in. exact Hs.
  - clear Hs. induction l as [|[k v] r IH]; cbn [run_del run_find]; [reflexivity|].
    destruct (tid_eqb t k) eqn:E1.
    + apply tid_eqb_eq in E1. subst k. rewrite E. reflexivity.
    + cbn [run_find]. destruct (tid_eqb x k); [reflexivity | exact IH].
Qed.

Record LOK (p : wproc) : Prop := mkLOK {
  lok_sorted : StronglySorted tlt (map fst (p_running p));
  lok_fut : map fst (p_futures p) = map fst (p_running p);
  lok_al : map fst (p_alloc p) = map fst (p_running p);
  lok_ne : forall kv, In kv (p_alloc p) -> snd kv <> [];
  lok_bl : StronglySorted N.lt (map fst (p_backlog p))
}.

Lemma local_ok_LOK p : local_ok p = true <-> LOK p.
Proof.
  unfold local_ok. rewrite !andb_true_iff, tids_sorted_iff, !tids_eqb_eq, forallb_forall, ns_sorted_iff. split.
  - intros ((((H1 & H2) & H3) & H4) & H5). constructor; auto.
    intros kv Hkv. specialize (H4 _ Hkv). destruct (snd kv); [discriminate | discriminate].
  - intros [H1 H2 H3 H4 H5]. repeat split; auto. intros kv Hkv. specialize (H4 _ Hkv). destruct (snd kv); [congruence | reflexivity].
Qed.

Lemma LOK_bl p q : p_running q = p_running p -> p_futures q = p_futures p -> p_alloc q = p_alloc p ->
  StronglySorted N.lt (map fst (p_backlog q)) -> LOK p -> LOK q.
Proof. intros E1 E2 E3 Hb [L1 L2 L3 L4 _]. constructor; rewrite ?E1, ?E2, ?E3; assumption. Qed.
Lemma LOK_fut p q : p_running q = p_running p -> p_backlog q = p_backlog p -> p_alloc q = p_alloc p ->
  map fst (p_futures q) = map fst (p_futures p) -> LOK p -> LOK q.
Proof. intros E1 E2 E3 E4 [L1 L2 L3 L4 L5]. constructor; rewrite ?E1, ?E2, ?E3, ?E4; assumption. Qed.
Lemma LOK_eq p q : p_running q = p_running p -> p_backlog q = p_backlog p -> p_futures q = p_futures p ->
  p_alloc q = p_alloc p -> LOK p -> LOK q.
Proof. intros E1 E2 E3 E4 H. apply (LOK_bl p); try assumption. rewrite E2. apply lok_bl. exact H. Qed.

Definition cnt (x : tid) (l : list wtask) : nat := length (filter (fun y => tid_eqb (wt_id y) x) l).

Lemma bl_count_nil x : bl_count x [] = O.
Proof. reflexivity. Qed.
Lemma bl_count_cons x k v r : bl_count x ((k, v) :: r) = (cnt x v + bl_count x r)%nat.
Proof. unfold bl_count, cnt. cbn [flat_map snd]. rewrite app_length. reflexivity. Qed.
Lemma cnt_app x a b : cnt x (a ++ b) = (cnt x a + cnt x b)%nat.
Proof. unfold cnt. rewrite filter_app, app_length. reflexivity. Qed.
Lemma cnt_one x t : cnt x [t] = if tid_eqb (wt_id t) x then 1%nat else O.
Proof. unfold cnt. cbn. destruct (tid_eqb (wt_id t) x); reflexivity. Qed.
Lemma cnt_pos x l : (0 < cnt x l)%nat <-> exists y, In y l /\ wt_id y = x.
Proof.
  unfold cnt. induction l as [|h r IH]; cbn [filter length In].
  - split; [lia | intros (y & [] & _)].
  - destruct (tid_eqb (wt_id h) x) eqn:E.
    + apply tid_eqb_eq in E. cbn [length]. split; [intros _; exists h; auto | intros _; lia].
    + apply tid_eqb_neq in E. rewrite IH. split; [intros (y & Hy & Hid); exists y; auto | intros (y & [Hy|Hy] & Hid); [congruence | eauto]].
Qed.

Lemma bl_get_above b rq : Forall (fun k => rq < k) (map fst b) -> bl_get b rq = [].
Proof.
  induction b as [|[k v] r IH]; cbn [bl_get map fst]; intros H; [reflexivity|].
  inversion H as [|? ? H1 H2]; subst. destruct (N.eqb rq k) eqn:E; [apply N.eqb_eq in E; lia | apply IH; exact H2].
Qed.

Lemma bl_count_set x b rq v : StronglySorted N.lt (map fst b) ->
  (bl_count x (bl_set b rq v) + cnt x (bl_get b rq) = bl_count x b + cnt x v)%nat.
Proof.
  induction b as [|[k v0] r IH]; cbn [bl_set bl_get map fst]; intros Hs.
  - rewrite bl_count_cons, bl_count_nil. change (cnt x []) with O. lia.
  - inversion Hs as [|? ? Hs' Hall]; subst. destruct (N.eqb rq k) eqn:E1.
    + rewrite !bl_count_cons. lia.
    + destruct (N.ltb rq k) eqn:E2.
      * rewrite !bl_count_cons. apply N.ltb_lt in E2.
        rewrite (bl_get_above r rq); [change (cnt x []) with O; lia|].
        rewrite Forall_forall in *. intros y Hy. specialize (Hall _ Hy). lia.
      * rewrite !bl_count_cons. specialize (IH Hs'). lia.
Qed.
Lemma bl_get_le x b rq : (cnt x (bl_get b rq) <= bl_count x b)%nat.
Proof.
  induction b as [|[k v] r IH]; cbn [bl_get]; [unfold cnt; cbn; lia|].
  rewrite bl_count_cons. destruct (N.eqb rq k); lia.
Qed.

Lemma pop_last_snoc {A} (l : list A) x r : pop_last l = Some (x, r) -> l = r ++ [x].
Proof.
  revert x r. induction l as [|h t IH]; cbn [pop_last]; intros x r H; [discriminate|].
  destruct t as [|h2 t2]; [inversion H; subst; reflexivity|].
  destruct (pop_last (h2 :: t2)) as [[x' r']|] eqn:E; [|discriminate]. inversion H; subst.
  rewrite (IH _ _ eq_refl). reflexivity.
Qed.

Definition bl_tids (b : list (N * list wtask)) : list tid := flat_map (fun kv => map wt_id (snd kv)) b.
Lemma bl_count_pos x b : (0 < bl_count x b)%nat <-> In x (bl_tids b).
Proof.
  induction b as [|[k v] r IH]; [cbn; split; [lia | intros []]|].
  rewrite bl_count_cons. change (bl_tids ((k, v) :: r)) with (map wt_id v ++ bl_tids r). rewrite in_app_iff, <- IH.
  assert (H : (0 < cnt x v)%nat <-> In x (map wt_id v)).
  { rewrite cnt_pos, in_map_iff. split; intros (y & H1 & H2); exists y; auto. }
  rewrite <- H. lia.
Qed.
Lemma bl_tids_cons k v r : bl_tids ((k, v) :: r) = map wt_id v ++ bl_tids r.
Proof. reflexivity. Qed.
Lemma bl_set_tids b rq v x : In x (bl_tids (bl_set b rq v)) -> In x (map wt_id v) \/ In x (bl_tids b).
Proof.
  induction b as [|[k v0] r IH]; cbn [bl_set].
  - rewrite bl_tids_cons, in_app_iff. cbn. tauto.
  - destruct (N.eqb rq k); [rewrite !bl_tids_cons, !in_app_iff; tauto|].
    destruct (N.ltb rq k); rewrite !bl_tids_cons, !in_app_iff; [tauto|].
    intros [H|H]; [tauto|]. destruct (IH H); tauto.
Qed.
Lemma bl_get_tids b rq y : In y (bl_get b rq) -> In (wt_id y) (bl_tids b).
Proof.
  induction b as [|[k v] r IH]; cbn [bl_get]; [intros []|]. rewrite bl_tids_cons, in_app_iff.
  destruct (N.eqb rq k); [intros H; left; apply in_map; exact H | intros H; right; apply IH; exact H].
Qed.

Lemma local_eq p q x : p_running q = p_running p -> p_backlog q = p_backlog p -> local q x = local p x.
Proof. unfold local. intros -> ->. reflexivity. Qed.

Lemma local_cases p x :
  (local p x = LNone /\ run_find (p_running p) x = None /\ bl_count x (p_backlog p) = O) \/
  (local p x = LBack /\ run_find (p_running p) x = None /\ bl_count x (p_backlog p) = 1%nat) \/
  (exists rv, local p x = LRun rv /\ run_find (p_running p) x = Some rv /\ bl_count x (p_backlog p) = O) \/
  local p x = LBad.
Proof.
  unfold local. destruct (run_find (p_running p) x) as [rv|]; destruct (bl_count x (p_backlog p)) as [|[|n]]; eauto 10.
Qed.
