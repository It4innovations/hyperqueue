(** The queue invariant, part 2: the taking functions of taskqueue.rs ([take_tasks], [take_one],
    [take_tasks_for_prefill]), the notion "id [x] is placed at [pl] in queue [q]", and that the ids
    taken by [take_tasks] are pairwise distinct. *)
From HQ Require Import Base.Prelude Cluster.Types Cluster.Core Cluster.Reactor Cluster.Worker Cluster.Server Cluster.Sys Cluster.Monitors Cluster.ProofsJob Cluster.ProofsMore Cluster.ProofsStep Cluster.BijBase Cluster.BijCore Cluster.BijHq Cluster.BijSt Cluster.InvQBase.
From HQ Require Import Cluster.ModelFacts.
From Coq Require Import ZArith Lia Sorting.Sorted.
Local Open Scope N_scope.

Arguments N.add : simpl never.
Arguments N.sub : simpl never.

(** [TakeQ q q' a]: [q'] is [q] without the ids [a]; each taken id left the priority level it was at. *)
Record TakeQ (q q' : queue) (a : list tid) : Prop := mkTakeQ {
  tk_wf : WFQ q';
  tk_r_sub : forall p x, RdyAt q' p x -> RdyAt q p x;
  tk_p_sub : forall p x, PfAt q' p x -> PfAt q p x;
  tk_r_keep : forall p x, RdyAt q p x -> RdyAt q' p x \/ In x a;
  tk_p_keep : forall p x, PfAt q p x -> PfAt q' p x \/ In x a;
  tk_gone : forall x, In x a -> exists p0, (RdyAt q p0 x /\ ~ RdyAt q' p0 x) \/ (PfAt q p0 x /\ ~ PfAt q' p0 x)
}.

Lemma TakeQ_refl q : WFQ q -> TakeQ q q [].
Proof. intros W. constructor; auto. intros x []. Qed.

Lemma TakeQ_trans q q1 q2 a b : TakeQ q q1 a -> TakeQ q1 q2 b -> TakeQ q q2 (a ++ b).
Proof.
  intros [W1 RS1 PS1 RK1 PK1 G1] [W2 RS2 PS2 RK2 PK2 G2]. constructor; auto.
  - intros p x H. destruct (RK1 _ _ H) as [H1|H1]; [|right; apply in_or_app; auto].
    destruct (RK2 _ _ H1) as [H2|H2]; [left; exact H2 | right; apply in_or_app; auto].
  - intros p x H. destruct (PK1 _ _ H) as [H1|H1]; [|right; apply in_or_app; auto].
    destruct (PK2 _ _ H1) as [H2|H2]; [left; exact H2 | right; apply in_or_app; auto].
  - intros x Hx. apply in_app_or in Hx. destruct Hx as [Hx|Hx].
    + destruct (G1 _ Hx) as (p0 & [[A B]|[A B]]); exists p0; [left | right]; (split; [exact A | intros C; apply B; auto]).
    + destruct (G2 _ Hx) as (p0 & [[A B]|[A B]]); exists p0; [left | right]; (split; [auto | exact B]).
Qed.

Lemma take_from_first_spec e t pf count a es' c :
  WFQ (mkQ (e :: t) pf) -> take_from_first (e :: t) count = Ok (a, es', c) ->
  TakeQ (mkQ (e :: t) pf) (mkQ es' pf) a /\ (forall x, In x a -> In x (qe_ids e) /\ ~ EAt es' (qe_prio e) x).
Proof.
  intros [W1 W2] H. cbn [q_ready q_prefill] in W1, W2. destruct (WFE_inv _ _ W1) as (He & B & Wt).
  assert (Hnot : forall x, ~ EAt t (qe_prio e) x) by (intros x Hx; exact (WFE_head_notin _ _ _ _ W1 Hx eq_refl)).
  (* the whole entry is taken *)
  assert (Hall : a = qe_ids e -> es' = t ->
                 TakeQ (mkQ (e :: t) pf) (mkQ es' pf) a /\ (forall x, In x a -> In x (qe_ids e) /\ ~ EAt es' (qe_prio e) x)).
  { intros -> ->. split.
    - constructor; unfold RdyAt, PfAt; cbn [q_ready q_prefill]; auto.
      + split; assumption.
      + intros p x Hx. apply EAt_cons. right. exact Hx.
      + intros p x Hx. apply EAt_cons in Hx. destruct Hx as [[_ Hx]|Hx]; auto.
      + intros x Hx. exists (qe_prio e). left. split; [apply EAt_cons; left; auto | apply Hnot].
    - intros x Hx. split; [exact Hx | apply Hnot]. }
  unfold take_from_first in H. destruct (qe_more e) eqn:Em.
  - destruct (take_n (N.to_nat count) (qe_ids e)) as [a0 b] eqn:Et.
    pose proof (take_n_app _ _ _ _ Et) as Eab.
    destruct (SL_app a0 b) as (Sa & Sb & Dab); [rewrite <- Eab; apply He|].
    destruct b as [|b0 bb] eqn:Eb.
    + inversion H; subst. apply Hall; [rewrite Eab, app_nil_r; reflexivity | reflexivity].
    + rewrite <- Eb in *. clear Eb. inversion H; subst. clear H.
      assert (Hno : forall x, In x a -> ~ EAt (mkQE (qe_prio e) true b :: t) (qe_prio e) x).
      { intros x Hx Hc. apply EAt_cons in Hc. cbn [qe_prio qe_ids] in Hc. destruct Hc as [[_ Hc]|Hc]; [exact (Dab _ Hx Hc) | exact (Hnot _ Hc)]. }
      split.
      * constructor; unfold RdyAt, PfAt; cbn [q_ready q_prefill]; auto.
        -- split; [|exact W2]. cbn [q_ready]. apply WFE_cons; [split; [exact Sb | discriminate] | exact B | exact Wt].
        -- intros p x Hx. apply EAt_cons in Hx. apply EAt_cons. cbn [qe_prio qe_ids] in Hx.
           destruct Hx as [[Hp Hx]|Hx]; [left; split; [exact Hp | rewrite Eab; apply in_or_app; auto] | right; exact Hx].
        -- intros p x Hx. apply EAt_cons in Hx. rewrite EAt_cons. cbn [qe_prio qe_ids].
           destruct Hx as [[Hp Hx]|Hx]; [|left; right; exact Hx].
           rewrite Eab in Hx. apply in_app_or in Hx. destruct Hx as [Hx|Hx]; [right; exact Hx | left; left; auto].
        -- intros x Hx. exists (qe_prio e). left. split; [apply EAt_cons; left; split; [reflexivity | rewrite Eab; apply in_or_app; auto] | apply Hno; exact Hx].
      * intros x Hx. split; [rewrite Eab; apply in_or_app; auto | apply Hno; exact Hx].
  - destruct (N.eqb count 0); [discriminate|]. inversion H; subst. apply Hall; reflexivity.
Qed.

Lemma take_from_first_TakeQ es pf count a es' c :
  WFQ (mkQ es pf) -> take_from_first es count = Ok (a, es', c) -> TakeQ (mkQ es pf) (mkQ es' pf) a.
Proof.
  intros W H. destruct es as [|e t]; [discriminate|]. eapply take_from_first_spec; eassumption.
Qed.

Lemma take_loop_spec pf fuel : forall es count acc ids es',
  WFQ (mkQ es pf) -> take_loop fuel es count acc = Ok (ids, es') ->
  exists a, ids = acc ++ a /\ TakeQ (mkQ es pf) (mkQ es' pf) a.
Proof.
  induction fuel as [|k IH]; intros es count acc ids es' W H; cbn [take_loop] in H.
  - destruct (N.eqb count 0); [|discriminate]. inversion H; subst. exists []. split; [rewrite app_nil_r; reflexivity | apply TakeQ_refl; exact W].
  - destruct (N.eqb count 0).
    + inversion H; subst. exists []. split; [rewrite app_nil_r; reflexivity | apply TakeQ_refl; exact W].
    + apply bind_ok in H. destruct H as ([[a es1] c1] & H1 & H).
      pose proof (take_from_first_TakeQ _ _ _ _ _ _ W H1) as T1.
      destruct (IH _ _ _ _ _ (tk_wf _ _ _ T1) H) as (b & Eb & T2).
      exists (a ++ b). split; [rewrite Eb, app_assoc; reflexivity | eapply TakeQ_trans; eassumption].
Qed.

Lemma drain_prefill_spec es pf order count a pf' c :
  WFQ (mkQ es pf) -> drain_prefill pf order count = Ok (a, pf', c) -> TakeQ (mkQ es pf) (mkQ es pf') a.
Proof.
  intros W H. unfold drain_prefill in H. destruct pf as [[pp ts]|]; [|inversion H; subst; apply TakeQ_refl; exact W].
  destruct (perm_of_set order ts) eqn:Eperm; [|discriminate]. cbn [negb] in H.
  destruct (take_n (N.to_nat count) order) as [a0 rest0] eqn:Et.
  pose proof (take_n_app _ _ _ _ Et) as Eab.
  destruct W as [W1 W2]. cbn [q_ready q_prefill] in W1, W2.
  destruct (fold_rem_spec a0 ts W2) as [RS RI].
  assert (Ha : forall x, In x a0 -> In x ts).
  { intros x Hx. apply tid_mem_In. apply (perm_of_set_mem _ _ _ Eperm). rewrite Eab. apply in_or_app. auto. }
  set (rest := fold_left (fun acc x => tid_remove x acc) a0 ts) in *.
  assert (Hgen : a = a0 -> WFP pf' -> (forall p x, PAt pf' p x <-> p = pp /\ In x rest) -> TakeQ (mkQ es (Some (pp, ts))) (mkQ es pf') a).
  { intros -> Wp Hp. constructor; unfold RdyAt, PfAt; cbn [q_ready q_prefill]; auto.
    - split; assumption.
    - intros p x Hx. apply Hp in Hx. apply PAt_some. split; [apply Hx | apply RI; apply Hx].
    - intros p x Hx. apply PAt_some in Hx. destruct Hx as [-> Hx].
      destruct (in_dec tid_dec x a0) as [I|N]; [right; exact I | left; apply Hp; split; [reflexivity | apply RI; auto]].
    - intros x Hx. exists pp. right. split; [apply PAt_some; auto|]. intros Hc. apply Hp in Hc. destruct Hc as [_ Hc]. apply RI in Hc. apply Hc. exact Hx. }
  destruct rest as [|r0 rr] eqn:Er; inversion H; subst; clear H.
  - apply Hgen; [reflexivity | exact I |]. intros p x. rewrite PAt_none. cbn. tauto.
  - apply Hgen; [reflexivity | exact RS |]. intros p x. apply PAt_some.
Qed.

Lemma q_take_tasks_spec q count order ids q' : WFQ q -> q_take_tasks q count order = Ok (ids, q') -> TakeQ q q' ids.
Proof.
  intros W H. destruct q as [es pf]. unfold q_take_tasks in H. cbn [q_ready q_prefill] in H.
  destruct pf as [[pp ts]|].
  - destruct (match q_top_priority (mkQ es (Some (pp, ts))) with Some tp => Z.eqb tp pp | None => false end).
    + apply bind_ok in H. destruct H as ([[a es1] c1] & H1 & H).
      apply bind_ok in H. destruct H as ([[b pf1] c2] & H2 & H).
      apply bind_ok in H. destruct H as ([c es2] & H3 & H). inversion H; subst; clear H.
      assert (T1 : TakeQ (mkQ es (Some (pp, ts))) (mkQ es1 (Some (pp, ts))) a).
      { destruct (N.ltb 0 count); [eapply take_from_first_TakeQ; eassumption | inversion H1; subst; apply TakeQ_refl; exact W]. }
      pose proof (drain_prefill_spec _ _ _ _ _ _ _ (tk_wf _ _ _ T1) H2) as T2.
      destruct (take_loop_spec pf1 _ _ _ _ _ _ (tk_wf _ _ _ T2) H3) as (c' & Ec & T3). cbn [app] in Ec. subst c'.
      eapply TakeQ_trans; [exact T1 | eapply TakeQ_trans; [exact T2 | exact T3]].
    + apply bind_ok in H. destruct H as ([[b pf1] c2] & H2 & H).
      apply bind_ok in H. destruct H as ([c es2] & H3 & H). inversion H; subst; clear H.
      pose proof (drain_prefill_spec _ _ _ _ _ _ _ W H2) as T2.
      destruct (take_loop_spec pf1 _ _ _ _ _ _ (tk_wf _ _ _ T2) H3) as (c' & Ec & T3). cbn [app] in Ec. subst c'.
      eapply TakeQ_trans; [exact T2 | exact T3].
  - apply bind_ok in H. destruct H as ([ids0 es2] & H3 & H). inversion H; subst; clear H.
    destruct (take_loop_spec None _ _ _ _ _ _ W H3) as (c' & Ec & T3). cbn [app] in Ec. subst c'. exact T3.
Qed.

Lemma q_take_one_spec q x q' : WFQ q -> q_take_one q = Some (x, q') -> TakeQ q q' [x].
Proof.
  intros W H. destruct q as [es pf]. unfold q_take_one in H. cbn [q_ready q_prefill] in H.
  destruct es as [|e t]; [discriminate|]. destruct (qe_ids e) as [|x0 rest] eqn:Ei; [discriminate|].
  (* [take_one] is [take_from_first] with count 1 *)
  assert (Ht : exists c, take_from_first (e :: t) 1 = Ok ([x], q_ready q', c) /\ q_prefill q' = pf).
  { unfold take_from_first. destruct (qe_more e) eqn:Em.
    - rewrite Ei. change (N.to_nat 1) with 1%nat.
      destruct rest as [|r0 rr]; inversion H; subst; cbn [take_n q_ready q_prefill]; eexists; split; reflexivity.
    - inversion H; subst. cbn [N.eqb]. rewrite Ei.
      destruct W as [W1 _]. cbn in W1. destruct (WFE_inv _ _ W1) as ((_ & Hone) & _). destruct (Hone Em) as (y & Ey).
      rewrite Ei in Ey. inversion Ey; subst. change (N.eqb 1 0) with false. cbn [q_ready q_prefill]. eexists; split; reflexivity. }
  destruct Ht as (c & Ht & Ep). destruct q' as [es' pf']. cbn [q_ready q_prefill] in Ht, Ep. subst pf'.
  eapply take_from_first_TakeQ; eassumption.
Qed.

Record MoveQ (q q' : queue) (a : list tid) (pe : Z) : Prop := mkMoveQ {
  mv_wf : WFQ q';
  mv_from : forall x, In x a -> RdyAt q pe x /\ ~ RdyAt q' pe x;
  mv_r_sub : forall p x, RdyAt q' p x -> RdyAt q p x;
  mv_r_keep : forall p x, RdyAt q p x -> RdyAt q' p x \/ In x a;
  mv_p : forall p x, PfAt q' p x <-> PfAt q p x \/ (In x a /\ p = pe)
}.

Lemma q_take_prefill_spec q count ids q' : WFQ q -> q_take_tasks_for_prefill q count = Ok (ids, q') ->
  exists pe, MoveQ q q' ids pe.
Proof.
  intros W H. destruct q as [es pf]. unfold q_take_tasks_for_prefill in H. cbn [q_ready q_prefill] in H.
  destruct es as [|e t]; [discriminate|].
  apply bind_ok in H. destruct H as ([[a es1] c1] & H1 & H).
  destruct (take_from_first_spec _ _ _ _ _ _ _ W H1) as [T1 F1].
  exists (qe_prio e).
  assert (Hgen : forall pf', WFP pf' -> (forall p x, PAt pf' p x <-> PAt pf p x \/ (In x a /\ p = qe_prio e)) ->
                 MoveQ (mkQ (e :: t) pf) (mkQ es1 pf') a (qe_prio e)).
  { intros pf' Wp Hp. constructor; unfold RdyAt, PfAt; cbn [q_ready q_prefill].
    - split; [exact (proj1 (tk_wf _ _ _ T1)) | exact Wp].
    - intros x Hx. destruct (F1 _ Hx) as [A B]. split; [apply EAt_cons; left; auto | exact B].
    - exact (tk_r_sub _ _ _ T1).
    - exact (tk_r_keep _ _ _ T1).
    - exact Hp. }
  destruct W as [_ W2]. cbn [q_prefill] in W2.
  destruct pf as [[pp ts]|].
  - destruct (Z.eqb pp (qe_prio e)) eqn:Ep; [|discriminate]. apply Z.eqb_eq in Ep. inversion H; subst; clear H.
    apply Hgen; [cbn; apply tinsall_SL; exact W2|].
    intros p x. rewrite !PAt_some, tid_insert_all_iff. tauto.
  - inversion H; subst; clear H. apply Hgen; [cbn; apply tinsall_SL; apply SL_nil|].
    intros p x. rewrite PAt_none, PAt_some, tid_insert_all_iff. cbn [In]. tauto.
Qed.

Inductive place := Nowhere | Ready | Prefill.

Definition placed (q : queue) (pl : place) (pr : Z) (x : tid) : Prop :=
  match pl with
  | Ready => (forall p, RdyAt q p x <-> p = pr) /\ (forall p, ~ PfAt q p x)
  | Prefill => (forall p, PfAt q p x <-> p = pr) /\ (forall p, ~ RdyAt q p x)
  | Nowhere => (forall p, ~ RdyAt q p x) /\ (forall p, ~ PfAt q p x)
  end.

Lemma placed_same q q' pl pr x :
  (forall p, RdyAt q' p x <-> RdyAt q p x) -> (forall p, PfAt q' p x <-> PfAt q p x) ->
  placed q pl pr x -> placed q' pl pr x.
Proof.
  intros HR HP. destruct pl; cbn; intros [A B]; split; intros p; try rewrite HR; try rewrite HP; auto.
Qed.

Lemma placed_member q pl pr x : placed q pl pr x -> member q x -> pl <> Nowhere.
Proof. intros H (p & [M|M]) ->; destruct H as [A B]; [exact (A _ M) | exact (B _ M)]. Qed.

Lemma placed_nowhere q pr pr' x : placed q Nowhere pr x -> placed q Nowhere pr' x.
Proof. intros H. exact H. Qed.

Lemma placed_not_member q pr x : ~ member q x -> placed q Nowhere pr x.
Proof. intros H. split; intros p M; apply H; exists p; auto. Qed.

Lemma placed_take_other q q' a pl pr x : TakeQ q q' a -> ~ In x a -> placed q pl pr x -> placed q' pl pr x.
Proof.
  intros T N. destruct pl; cbn; intros [A B]; split; intros p.
  - intros M. exact (A _ (tk_r_sub _ _ _ T _ _ M)).
  - intros M. exact (B _ (tk_p_sub _ _ _ T _ _ M)).
  - split; [intros M; apply A; exact (tk_r_sub _ _ _ T _ _ M)|].
    intros ->. destruct (tk_r_keep _ _ _ T pr x) as [M|M]; [apply A; reflexivity | exact M | contradiction].
  - intros M. exact (B _ (tk_p_sub _ _ _ T _ _ M)).
  - split; [intros M; apply A; exact (tk_p_sub _ _ _ T _ _ M)|].
    intros ->. destruct (tk_p_keep _ _ _ T pr x) as [M|M]; [apply A; reflexivity | exact M | contradiction].
  - intros M. exact (B _ (tk_r_sub _ _ _ T _ _ M)).
Qed.

Lemma placed_take_in q q' a pl pr x : TakeQ q q' a -> In x a -> placed q pl pr x -> placed q' Nowhere pr x.
Proof.
  intros T Hin H. destruct (tk_gone _ _ _ T _ Hin) as (p0 & G). destruct pl; cbn in H; destruct H as [A B].
  - exfalso. destruct G as [[G _]|[G _]]; [exact (A _ G) | exact (B _ G)].
  - split; intros p M.
    + pose proof (tk_r_sub _ _ _ T _ _ M) as M0. apply A in M0. subst p.
      destruct G as [[G1 G2]|[G1 _]]; [|exact (B _ G1)]. apply A in G1. subst p0. exact (G2 M).
    + exact (B _ (tk_p_sub _ _ _ T _ _ M)).
  - split; intros p M.
    + exact (B _ (tk_r_sub _ _ _ T _ _ M)).
    + pose proof (tk_p_sub _ _ _ T _ _ M) as M0. apply A in M0. subst p.
      destruct G as [[G1 _]|[G1 G2]]; [exact (B _ G1)|]. apply A in G1. subst p0. exact (G2 M).
Qed.

Lemma TakeQ_member q q' a x : TakeQ q q' a -> member q' x -> member q x.
Proof. intros T (p & [M|M]); exists p; [left; exact (tk_r_sub _ _ _ T _ _ M) | right; exact (tk_p_sub _ _ _ T _ _ M)]. Qed.
Lemma TakeQ_taken_member q q' a x : TakeQ q q' a -> In x a -> member q x.
Proof. intros T Hin. destruct (tk_gone _ _ _ T _ Hin) as (p0 & [[G _]|[G _]]); exists p0; auto. Qed.

Lemma placed_move_other q q' a pe pl pr x : MoveQ q q' a pe -> ~ In x a -> placed q pl pr x -> placed q' pl pr x.
Proof.
  intros T N. destruct pl; cbn; intros [A B]; split; intros p.
  - intros M. exact (A _ (mv_r_sub _ _ _ _ T _ _ M)).
  - intros M. apply (mv_p _ _ _ _ T) in M. destruct M as [M|[M _]]; [exact (B _ M) | contradiction].
  - split; [intros M; apply A; exact (mv_r_sub _ _ _ _ T _ _ M)|].
    intros ->. destruct (mv_r_keep _ _ _ _ T pr x) as [M|M]; [apply A; reflexivity | exact M | contradiction].
  - intros M. apply (mv_p _ _ _ _ T) in M. destruct M as [M|[M _]]; [exact (B _ M) | contradiction].
  - rewrite (mv_p _ _ _ _ T). split; [intros [M|[M _]]; [apply A; exact M | contradiction] | intros ->; left; apply A; reflexivity].
  - intros M. exact (B _ (mv_r_sub _ _ _ _ T _ _ M)).
Qed.

Lemma placed_move_in q q' a pe pl pr x : MoveQ q q' a pe -> In x a -> placed q pl pr x -> pl = Ready /\ placed q' Prefill pr x.
Proof.
  intros T Hin H. destruct (mv_from _ _ _ _ T _ Hin) as [F1 F2]. destruct pl; cbn in H; destruct H as [A B].
  - exfalso. exact (A _ F1).
  - split; [reflexivity|]. pose proof (proj1 (A _) F1) as E. subst pe. split; intros p.
    + rewrite (mv_p _ _ _ _ T). split; [intros [M|[_ M]]; [exfalso; exact (B _ M) | exact M] | intros ->; right; auto].
    + intros M. pose proof (mv_r_sub _ _ _ _ T _ _ M) as M0. apply A in M0. subst p. exact (F2 M).
  - exfalso. exact (B _ F1).
Qed.

Lemma MoveQ_member q q' a pe x : MoveQ q q' a pe -> member q' x -> member q x.
Proof.
  intros T (p & [M|M]); [exists p; left; exact (mv_r_sub _ _ _ _ T _ _ M)|].
  apply (mv_p _ _ _ _ T) in M. destruct M as [M|[M _]]; [exists p; right; exact M|].
  exists pe. left. apply (mv_from _ _ _ _ T _ M).
Qed.

(** Every id sits at one place of the queue at most (the round-robin assignment handles every taken
    task exactly once, so the ids taken by [take_tasks] must be pairwise distinct). *)
Definition uniq (q : queue) : Prop :=
  forall x, (forall p p', RdyAt q p x -> RdyAt q p' x -> p = p') /\ (forall p p', RdyAt q p x -> PfAt q p' x -> False).

Lemma uniq_sub q q' a : TakeQ q q' a -> uniq q -> uniq q'.
Proof.
  intros T U x. destruct (U x) as [U1 U2]. split.
  - intros p p' A B. apply U1; apply (tk_r_sub _ _ _ T); assumption.
  - intros p p' A B. eapply U2; [apply (tk_r_sub _ _ _ T); exact A | apply (tk_p_sub _ _ _ T); exact B].
Qed.

Definition TakeD (q q' : queue) (a : list tid) : Prop := TakeQ q q' a /\ (uniq q -> NoDup a).

Lemma TakeD_refl q : WFQ q -> TakeD q q [].
Proof. intros W. split; [apply TakeQ_refl; exact W | intros _; constructor]. Qed.

Lemma PfAt_fun q p p' x : PfAt q p x -> PfAt q p' x -> p = p'.
Proof. unfold PfAt. intros (ts & E & _) (ts' & E' & _). congruence. Qed.

Lemma TakeD_trans q q1 q2 a b : TakeD q q1 a -> TakeD q1 q2 b -> TakeD q q2 (a ++ b).
Proof.
  intros [T1 N1] [T2 N2]. split; [eapply TakeQ_trans; eassumption|].
  intros U. pose proof (uniq_sub _ _ _ T1 U) as U1.
  assert (Hd : forall x, In x a -> In x b -> False).
  { intros x Ha Hb. destruct (U x) as [Ux1 Ux2].
    destruct (tk_gone _ _ _ T1 _ Ha) as (p0 & G1). destruct (tk_gone _ _ _ T2 _ Hb) as (p1 & G2).
    destruct G1 as [[A1 B1]|[A1 B1]], G2 as [[A2 _]|[A2 _]].
    - pose proof (tk_r_sub _ _ _ T1 _ _ A2) as A2'. rewrite (Ux1 _ _ A1 A2') in B1. exact (B1 A2).
    - exact (Ux2 _ _ A1 (tk_p_sub _ _ _ T1 _ _ A2)).
    - exact (Ux2 _ _ (tk_r_sub _ _ _ T1 _ _ A2) A1).
    - pose proof (tk_p_sub _ _ _ T1 _ _ A2) as A2'. rewrite (PfAt_fun _ _ _ _ A1 A2') in B1. exact (B1 A2). }
  pose proof (N1 U) as Na. pose proof (N2 U1) as Nb. clear -Na Nb Hd. revert Na Hd.
  induction a as [|h t IH]; cbn [app]; intros Na Hd; [exact Nb|]. inversion Na as [|? ? Hnh Hnt]; subst. constructor.
  - intros Hin. apply in_app_or in Hin. destruct Hin as [Hin|Hin]; [contradiction | exact (Hd h (or_introl eq_refl) Hin)].
  - apply IH; [exact Hnt|]. intros x Hx. apply Hd. right. exact Hx.
Qed.

Lemma take_from_first_D es pf count a es' c :
  WFQ (mkQ es pf) -> take_from_first es count = Ok (a, es', c) -> TakeD (mkQ es pf) (mkQ es' pf) a.
Proof.
  intros W H. split; [eapply take_from_first_TakeQ; eassumption|]. intros _.
  destruct es as [|e t]; [discriminate|]. destruct W as [W1 _]. cbn in W1. destruct (WFE_inv _ _ W1) as ((Hs & _) & _).
  unfold take_from_first in H. destruct (qe_more e).
  - destruct (take_n (N.to_nat count) (qe_ids e)) as [a0 b] eqn:Et. pose proof (take_n_app _ _ _ _ Et) as Eab.
    destruct (SL_app a0 b) as (Sa & _ & _); [rewrite <- Eab; exact Hs|].
    destruct b; inversion H; subst; apply SL_NoDup; exact Sa.
  - destruct (N.eqb count 0); [discriminate|]. inversion H; subst. apply SL_NoDup. exact Hs.
Qed.

Lemma take_loop_D pf fuel : forall es count acc ids es',
  WFQ (mkQ es pf) -> take_loop fuel es count acc = Ok (ids, es') ->
  exists a, ids = acc ++ a /\ TakeD (mkQ es pf) (mkQ es' pf) a.
Proof.
  induction fuel as [|k IH]; intros es count acc ids es' W H; cbn [take_loop] in H.
  - destruct (N.eqb count 0); [|discriminate]. inversion H; subst. exists []. split; [rewrite app_nil_r; reflexivity | apply TakeD_refl; exact W].
  - destruct (N.eqb count 0).
    + inversion H; subst. exists []. split; [rewrite app_nil_r; reflexivity | apply TakeD_refl; exact W].
    + apply bind_ok in H. destruct H as ([[a es1] c1] & H1 & H).
      pose proof (take_from_first_D _ _ _ _ _ _ W H1) as T1.
      destruct (IH _ _ _ _ _ (tk_wf _ _ _ (proj1 T1)) H) as (b & Eb & T2).
      exists (a ++ b). split; [rewrite Eb, app_assoc; reflexivity | eapply TakeD_trans; eassumption].
Qed.

Lemma NoDup_app_l {A} (a b : list A) : NoDup (a ++ b) -> NoDup a.
Proof.
  induction a as [|h t IH]; cbn [app]; intros H; [constructor|]. inversion H; subst. constructor; [|apply IH; assumption].
  intros Hin. apply H2. apply in_or_app. left. exact Hin.
Qed.

Lemma drain_prefill_D es pf order count a pf' c :
  WFQ (mkQ es pf) -> drain_prefill pf order count = Ok (a, pf', c) -> TakeD (mkQ es pf) (mkQ es pf') a.
Proof.
  intros W H. split; [eapply drain_prefill_spec; eassumption|]. intros _.
  unfold drain_prefill in H. destruct pf as [[pp ts]|]; [|inversion H; subst; constructor].
  destruct (perm_of_set order ts) eqn:Eperm; [|discriminate]. cbn [negb] in H.
  destruct (take_n (N.to_nat count) order) as [a0 rest0] eqn:Et. pose proof (take_n_app _ _ _ _ Et) as Eab.
  assert (Ea : a = a0) by (destruct (fold_left _ a0 ts); inversion H; reflexivity). subst a0.
  destruct W as [_ W2]. cbn in W2.
  assert (Hnd : NoDup order).
  { unfold perm_of_set in Eperm. apply andb_true_iff in Eperm. destruct Eperm as [Eperm E3]. apply andb_true_iff in Eperm. destruct Eperm as [E1 E2].
    apply N.eqb_eq in E1. apply Nat2N.inj in E1. rewrite forallb_forall in E3.
    apply (@NoDup_incl_NoDup _ ts order (SL_NoDup _ W2)); [lia|]. intros x Hx. apply tid_mem_In. apply E3. exact Hx. }
  rewrite Eab in Hnd. eapply NoDup_app_l. exact Hnd.
Qed.

Lemma q_take_tasks_D q count order ids q' : WFQ q -> q_take_tasks q count order = Ok (ids, q') -> TakeD q q' ids.
Proof.
  intros W H. destruct q as [es pf]. unfold q_take_tasks in H. cbn [q_ready q_prefill] in H.
  destruct pf as [[pp ts]|].
  - destruct (match q_top_priority (mkQ es (Some (pp, ts))) with Some tp => Z.eqb tp pp | None => false end).
    + apply bind_ok in H. destruct H as ([[a es1] c1] & H1 & H).
      apply bind_ok in H. destruct H as ([[b pf1] c2] & H2 & H).
      apply bind_ok in H. destruct H as ([c es2] & H3 & H). inversion H; subst; clear H.
      assert (T1 : TakeD (mkQ es (Some (pp, ts))) (mkQ es1 (Some (pp, ts))) a).
      { destruct (N.ltb 0 count); [eapply take_from_first_D; eassumption | inversion H1; subst; apply TakeD_refl; exact W]. }
      pose proof (drain_prefill_D _ _ _ _ _ _ _ (tk_wf _ _ _ (proj1 T1)) H2) as T2.
      destruct (take_loop_D pf1 _ _ _ _ _ _ (tk_wf _ _ _ (proj1 T2)) H3) as (c' & Ec & T3). cbn [app] in Ec. subst c'.
      eapply TakeD_trans; [exact T1 | eapply TakeD_trans; [exact T2 | exact T3]].
    + apply bind_ok in H. destruct H as ([[b pf1] c2] & H2 & H).
      apply bind_ok in H. destruct H as ([c es2] & H3 & H). inversion H; subst; clear H.
      pose proof (drain_prefill_D _ _ _ _ _ _ _ W H2) as T2.
      destruct (take_loop_D pf1 _ _ _ _ _ _ (tk_wf _ _ _ (proj1 T2)) H3) as (c' & Ec & T3). cbn [app] in Ec. subst c'.
      eapply TakeD_trans; [exact T2 | exact T3].
  - apply bind_ok in H. destruct H as ([ids0 es2] & H3 & H). inversion H; subst; clear H.
    destruct (take_loop_D None _ _ _ _ _ _ W H3) as (c' & Ec & T3). cbn [app] in Ec. subst c'. exact T3.
Qed.

