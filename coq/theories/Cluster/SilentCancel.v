(** C08, the executable trace monitor [Monitors.cancel_final] ("once the cancel of job j was
    answered, nothing is reported for the job's cancelled tasks any more") accepts the items of
    EVERY history of the system model (no hypothesis on the history).

    The items of a history are built from the outputs of each operation the way the driver
    (ocaml/cluster/driver.ml) builds them from the lines of the real run: an event gives [IEv],
    the answer [RCancelOk ids _] to the cancel request [OpCancel j] gives [ICancelResp j ids],
    everything else as [DepOrderJournal.item_of_out] ([ILaunch], [ISubmitted]).

    Proof: the ids of a cancel response are exactly the ids of the [EvCanceled] event emitted just
    before it in the same operation ([handle_cancel_shape]), so every task the monitor has in its
    accumulator has a terminal event earlier in the stream; by [silent_after_terminal] no later
    event names it. *)
From HQ Require Import Base.Prelude Cluster.Types Cluster.Core Cluster.Reactor Cluster.Worker Cluster.Server Cluster.Sys Cluster.Monitors Cluster.ProofsJob Cluster.ProofsTerminal Cluster.BijBase Cluster.BijFinal Cluster.ProofsOnce Cluster.DepOrderJournal Cluster.SilentStart.
From HQ Require Import Cluster.ModelFacts.
From Coq Require Import ZArith Lia.
Local Open Scope N_scope.

Definition citem_of_out (o : op) (x : out) : list item :=
  match x with
  | OResp (RCancelOk ids _) => match o with OpCancel j => [ICancelResp j ids] | _ => [] end
  | _ => item_of_out o x
  end.
Definition citems_of_step (o : op) (outs : list out) : list item := flat_map (citem_of_out o) outs.

Fixpoint run_citems (s : sys) (ops : list op) : res (sys * list item) :=
  match ops with
  | [] => Ok (s, [])
  | o :: r =>
      do (s1, o1) <- step s o;
      do (s2, i2) <- run_citems s1 r;
      Ok (s2, citems_of_step o o1 ++ i2)
  end.

Lemma run_citems_run ops : forall s s' items, run_citems s ops = Ok (s', items) -> exists outs, run s ops = Ok (s', outs).
Proof.
  induction ops as [|o r IH]; cbn [run run_citems]; intros s s' items H; [inversion H; subst; eexists; reflexivity|].
  apply bind_ok in H. destruct H as ([s1 o1] & H1 & H). apply bind_ok in H. destruct H as ([s2 i2] & H2 & H). inversion H; subst.
  destruct (IH _ _ _ H2) as (o2 & Ho). rewrite H1. cbn [bind]. rewrite Ho. cbn [bind]. eexists; reflexivity.
Qed.

Definition SILENT (outs : list out) : Prop :=
  forall pre e post t, outs = pre ++ OEv e :: post -> In t (tids_of (OEv e)) ->
  forall e', In (OEv e') post -> ~ In t (ev_names e').

Lemma terminal_ids_in l t : In t (terminal_ids l) -> exists p e q, l = p ++ OEv e :: q /\ In t (tids_of (OEv e)).
Proof.
  unfold terminal_ids. intros H. apply in_flat_map in H. destruct H as (o & Ho & Ht).
  apply in_split in Ho. destruct Ho as (p & q & ->).
  destruct o as [e| | | | | |]; try destruct Ht. exists p, e, q. split; [reflexivity | exact Ht].
Qed.

Lemma SILENT_later total done rest t e :
  SILENT total -> total = done ++ rest -> In t (terminal_ids done) -> In (OEv e) rest -> ~ In t (ev_names e).
Proof.
  intros HS E Ht He. destruct (terminal_ids_in _ _ Ht) as (p & e1 & q & -> & Ht1).
  apply (HS p e1 (q ++ rest) t); [rewrite E, <- app_assoc; reflexivity | exact Ht1 | apply in_or_app; right; exact He].
Qed.


Lemma cf_event e canceled r :
  (forall t, In t canceled -> ~ In t (ev_names e)) ->
  cancel_final canceled (IEv e :: r) = cancel_final canceled r.
Proof.
  intros H. cbn [cancel_final].
  assert (Hone : forall t, In t (ev_names e) -> negb (tid_mem t canceled) = true).
  { intros t Ht. rewrite (proj2 (tid_mem_nIn _ _)); [reflexivity|]. intros Hc. exact (H t Hc Ht). }
  destruct e; cbn [ev_names] in Hone; try reflexivity.
  - rewrite (Hone t (or_introl eq_refl)). reflexivity.
  - rewrite (Hone t (or_introl eq_refl)). reflexivity.
  - rewrite (Hone t (or_introl eq_refl)). reflexivity.
  - assert (E : existsb (fun t => tid_mem t canceled) ts = false).
    { apply not_true_is_false. intros Hx. apply existsb_exists in Hx. destruct Hx as (t & Ht & Hm).
      specialize (Hone t Ht). rewrite Hm in Hone. discriminate. }
    rewrite E. reflexivity.
Qed.

Lemma cf_other o x canceled r :
  (forall e, x <> OEv e) -> (forall ids al j, x = OResp (RCancelOk ids al) -> o <> OpCancel j) ->
  cancel_final canceled (citem_of_out o x ++ r) = cancel_final canceled r.
Proof.
  intros He Hc. destruct x as [e|l|rsp|w m|w m|w|js ws]; try reflexivity.
  - exfalso. exact (He e eq_refl).
  - destruct rsp; try reflexivity. destruct o; try reflexivity. exfalso. exact (Hc ids already j eq_refl eq_refl).
Qed.

Lemma terminal_ids_mono a b t : In t (terminal_ids a) -> In t (terminal_ids (a ++ b)).
Proof. intros H. rewrite terminal_ids_app. apply in_or_app. left. exact H. Qed.

Lemma terminal_ids_mono_r a b t : In t (terminal_ids b) -> In t (terminal_ids (a ++ b)).
Proof. intros H. rewrite terminal_ids_app. apply in_or_app. right. exact H. Qed.

Lemma cf_inner o total : SILENT total -> forall rest done canceled future tail,
  total = done ++ rest ++ future ->
  (forall t, In t canceled -> In t (terminal_ids done)) ->
  (forall a ids al b j, rest = a ++ OResp (RCancelOk ids al) :: b -> o = OpCancel j ->
     forall i, In i ids -> In (j, i) (terminal_ids (done ++ a))) ->
  (forall canceled', (forall t, In t canceled' -> In t (terminal_ids (done ++ rest))) -> cancel_final canceled' tail = true) ->
  cancel_final canceled (citems_of_step o rest ++ tail) = true.
Proof.
  intros HS. induction rest as [|x rest' IH]; intros done canceled future tail E Hc Hshape Hk.
  - cbn. apply Hk. rewrite app_nil_r. exact Hc.
  - unfold citems_of_step. cbn [flat_map]. rewrite <- app_assoc. fold (citems_of_step o rest').
    assert (Hnext : forall canceled1, (forall t, In t canceled1 -> In t (terminal_ids (done ++ [x]))) ->
              cancel_final canceled1 (citems_of_step o rest' ++ tail) = true).
    { intros canceled1 Hc1. apply (IH (done ++ [x]) canceled1 future tail).
      - rewrite E, <- app_assoc. reflexivity.
      - exact Hc1.
      - intros a ids al b j Er Eo i Hi. rewrite <- app_assoc. cbn [app].
        apply (Hshape (x :: a) ids al b j); [rewrite Er; reflexivity | exact Eo | exact Hi].
      - intros c' Hc'. apply Hk. intros t Ht. specialize (Hc' t Ht). rewrite <- app_assoc in Hc'. exact Hc'. }
    assert (Hkeep : forall t, In t canceled -> In t (terminal_ids (done ++ [x]))) by (intros t Ht; apply terminal_ids_mono; apply Hc; exact Ht).
    destruct x as [e|l|rsp|w m|w m|w|js ws];
      try (rewrite cf_other; [apply Hnext; exact Hkeep | intros e0; discriminate | intros ? ? ?; discriminate]).
    + cbn [citem_of_out item_of_out app]. rewrite cf_event; [apply Hnext; exact Hkeep|].
      intros t Ht. apply (SILENT_later total done (OEv e :: rest' ++ future) t e HS E (Hc t Ht)). left. reflexivity.
    + destruct rsp as [| | | |ids al| |];
        try (rewrite cf_other; [apply Hnext; exact Hkeep | intros e0; discriminate | intros ? ? ?; discriminate]).
      destruct o; try (rewrite cf_other; [apply Hnext; exact Hkeep | intros e0; discriminate | intros ? ? ? _; discriminate]).
      cbn [citem_of_out app cancel_final]. apply Hnext.
      intros t Ht. apply in_app_or in Ht. destruct Ht as [Ht|Ht]; [|apply Hkeep; exact Ht].
      apply in_map_iff in Ht. destruct Ht as (i & <- & Hi). apply terminal_ids_mono.
      specialize (Hshape [] ids al rest' j eq_refl eq_refl i Hi). rewrite app_nil_r in Hshape. exact Hshape.
Qed.

Lemma handle_cancel_shape s j s' :
  handle_cancel s j = Ok s' ->
  (exists r, snd s' = snd s ++ [OResp r] /\ forall ids al, r = RCancelOk ids al -> ids = []) \/
  (exists ids q al, (forall t, In t ids -> fst t = j) /\
     snd s' = snd s ++ [OEv (EvJobCancel j); OEv (EvCanceled ids)] ++ q ++ [OResp (RCancelOk (map snd ids) al)] /\
     (q = [] \/ q = [OEv (EvCompleted j)])).
Proof.
  intros H. unfold handle_cancel in H. destruct (find_job (hq_jobs s) j) as [jb|] eqn:Ej.
  2: { inversion H; subst. left. exists RCancelInvalid. split; [reflexivity | intros ids al E; discriminate]. }
  destruct (non_finished_task_ids jb) as [|i0 ir] eqn:En.
  { inversion H; subst. left. eexists. split; [reflexivity|]. intros ids al E. inversion E; reflexivity. }
  rewrite <- En in H. right.
  apply bind_ok in H. destruct H as (s1 & H1 & H). apply bind_ok in H. destruct H as (al & _ & H).
  apply bind_ok in H. destruct H as (s2 & H2 & H). inversion H; subst s'. clear H.
  pose proof (on_cancel_tasks_snd _ _ _ H1) as S1.
  exists (non_finished_task_ids jb).
  assert (Hfst : forall t, In t (non_finished_task_ids jb) -> fst t = j).
  { intros t Ht. unfold non_finished_task_ids in Ht. apply in_map_iff in Ht. destruct Ht as (kv & <- & _). cbn. eapply find_job_id; exact Ej. }
  unfold set_cancel_state in H2. rewrite En in H2. rewrite <- En in H2.
  apply bind_ok in H2. destruct H2 as (j0 & _ & H2). apply bind_ok in H2. destruct H2 as (j1 & _ & H2).
  unfold check_termination in H2. apply bind_ok in H2. destruct H2 as (j2 & _ & H2). apply bind_ok in H2. destruct H2 as (na & _ & H2).
  assert (Hcase : (snd s2 = snd s ++ [OEv (EvJobCancel j); OEv (EvCanceled (non_finished_task_ids jb))] ++ []) \/
                  (snd s2 = snd s ++ [OEv (EvJobCancel j); OEv (EvCanceled (non_finished_task_ids jb))] ++ [OEv (EvCompleted j)])).
  { destruct na; [destruct (j_open j2)|]; inversion H2; subst s2; cbn [snd emit fst hq_set_job]; rewrite S1, <- ?app_assoc; cbn [app]; auto. }
  destruct Hcase as [Hs|Hs].
  - exists [], al. split; [exact Hfst|]. split; [|left; reflexivity]. cbn [snd emit]. rewrite Hs, <- !app_assoc. reflexivity.
  - exists [OEv (EvCompleted j)], al. split; [exact Hfst|]. split; [|right; reflexivity]. cbn [snd emit]. rewrite Hs, <- !app_assoc. reflexivity.
Qed.

Lemma resp_last (l : list out) : forall a x b y,
  Forall (fun o => exists e, o = OEv e) l -> a ++ OResp x :: b = l ++ [OResp y] -> a = l /\ x = y /\ b = [].
Proof.
  induction l as [|h l' IH]; intros a x b y Hl E.
  - destruct a as [|h' a']; cbn [app] in E; [inversion E; auto|]. inversion E as [[E1 E2]]. destruct a'; discriminate.
  - inversion Hl as [|? ? (e & He) Hl']; subst. destruct a as [|h' a']; cbn [app] in E; [discriminate|].
    inversion E as [[E1 E2]]. destruct (IH _ _ _ _ Hl' E2) as (-> & -> & ->). auto.
Qed.

Lemma cancel_resp_ids s o s' outs a ids al b j :
  step s o = Ok (s', outs) -> outs = a ++ OResp (RCancelOk ids al) :: b -> o = OpCancel j ->
  forall i, In i ids -> In (j, i) (terminal_ids a).
Proof.
  intros H E -> i Hi. cbn [step] in H.
  destruct (handle_cancel_shape _ _ _ H) as [(r & Es & Hr)|(ids0 & q & al0 & Hf & Es & Hq)]; cbn [snd app] in Es; rewrite Es in E; clear Es.
  - symmetry in E. destruct (resp_last [] _ _ _ _ (Forall_nil _) E) as (_ & Er & _).
    rewrite (Hr ids al (eq_sym Er)) in Hi. destruct Hi.
  - symmetry in E. change (OEv (EvJobCancel j) :: OEv (EvCanceled ids0) :: q ++ [OResp (RCancelOk (map snd ids0) al0)])
      with ((OEv (EvJobCancel j) :: OEv (EvCanceled ids0) :: q) ++ [OResp (RCancelOk (map snd ids0) al0)]) in E.
    assert (Hl : Forall (fun o => exists e, o = OEv e) (OEv (EvJobCancel j) :: OEv (EvCanceled ids0) :: q)).
    { constructor; [eexists; reflexivity|]. constructor; [eexists; reflexivity|].
      destruct Hq as [-> | ->]; [constructor | constructor; [eexists; reflexivity | constructor]]. }
    destruct (resp_last _ _ _ _ _ Hl E) as (-> & Er & _). inversion Er; subst ids.
    apply in_map_iff in Hi. destruct Hi as (t & <- & Ht).
    unfold terminal_ids. cbn [flat_map app tids_of]. apply in_or_app. left.
    replace (j, snd t) with t; [exact Ht|]. destruct t as [tj ti]. cbn. rewrite <- (Hf _ Ht). reflexivity.
Qed.

Lemma cf_run total : SILENT total -> forall ops s done canceled s' outs items,
  total = done ++ outs -> run s ops = Ok (s', outs) -> run_citems s ops = Ok (s', items) ->
  (forall t, In t canceled -> In t (terminal_ids done)) -> cancel_final canceled items = true.
Proof.
  intros HS. induction ops as [|o r IH]; cbn [run run_citems]; intros s done canceled s' outs items E H Hi Hc.
  - inversion Hi; subst. reflexivity.
  - apply bind_ok in H. destruct H as ([s1 o1] & H1 & H). apply bind_ok in H. destruct H as ([s2 o2] & H2 & H). inversion H; subst s2 outs. clear H.
    rewrite H1 in Hi. cbn [bind] in Hi. apply bind_ok in Hi. destruct Hi as ([s3 i2] & Hi2 & Hi). inversion Hi; subst s3 items. clear Hi.
    apply (cf_inner o total HS o1 done canceled o2 i2); [exact E | exact Hc | |].
    + intros a ids al b j Eo Ej i Hin. apply terminal_ids_mono_r. eapply cancel_resp_ids; eassumption.
    + intros c' Hc'. apply (IH s1 (done ++ o1) c' s' o2 i2); [rewrite E, app_assoc; reflexivity | exact H2 | exact Hi2 | exact Hc'].
Qed.

(** C08: the monitor accepts every history. *)
Theorem cancel_final_run ops reserve maxfill s items :
  run_citems (init_sys reserve maxfill) ops = Ok (s, items) -> cancel_final [] items = true.
Proof.
  intros Hi. destruct (run_citems_run _ _ _ _ Hi) as (outs & H).
  apply (cf_run outs) with (ops := ops) (s := init_sys reserve maxfill) (done := []) (s' := s) (outs := outs);
    [ | reflexivity | exact H | exact Hi | intros t []].
  intros pre e post t E Ht e' He'. eapply silent_after_terminal; [exact H | exact E | | exact He'].
  unfold terminal_ids. cbn [flat_map]. rewrite app_nil_r. exact Ht.
Qed.

(** * Non-vacuity: a job with a running and a waiting task is cancelled; the response names both,
    the monitor accepts; and it rejects a stream that reports a cancelled task afterwards. *)
Definition cancel_ops : list op :=
  [OpConnect [10000; 0; 0] 0;
   OpSubmit None [] (Some 2) once_rq 0%Z (CMax 3) false None;
   OpSched (mkSol [(0, 0, [(1, 1)])] [] [1] []);
   OpDDown 1 []; OpDDown 1 []; OpDUp 1;
   OpCancel 1; OpDDown 1 []; OpOpen None].

Example cancel_final_example : exists s items, run_citems (init_sys 0 2) cancel_ops = Ok (s, items)
  /\ In (IEv (EvStarted (1, 0) 0 [1] 0)) items /\ In (ICancelResp 1 [0; 1]) items /\ cancel_final [] items = true.
Proof.
  eexists. eexists. split; [vm_compute; reflexivity|].
  split; [cbn; tauto|]. split; [cbn; tauto | vm_compute; reflexivity].
Qed.

Example cancel_final_rejects :
  cancel_final [] [IEv (EvCanceled [(1, 0)]); ICancelResp 1 [0]; IEv (EvStarted (1, 0) 0 [1] 0)] = false /\
  cancel_final [] [IEv (EvCanceled [(1, 0)]); ICancelResp 1 [0]; IEv (EvFinished (1, 0))] = false /\
  cancel_final [] [IEv (EvCanceled [(1, 0)]); ICancelResp 1 [0]; IEv (EvAborted [(1, 1); (1, 0)])] = false /\
  cancel_final [] [IEv (EvStarted (1, 0) 0 [1] 0); IEv (EvCanceled [(1, 0)]); ICancelResp 1 [0]; IEv (EvCompleted 1)] = true.
Proof. vm_compute. repeat split; reflexivity. Qed.

Print Assumptions cancel_final_run.
