(** * Proofs about the yield-point model of a waiting client connection (C13, last sentence) *)
From HQ Require Import Base.Prelude.
From HQ Require Import Cluster.ModelFacts.
From HQ Require Import Cluster.WaitModel.
Require Import ZifyBool ZifyN ZifyNat.
Local Open Scope N_scope.
Arguments N.add : simpl never.
Arguments N.sub : simpl never.
Arguments N.eqb : simpl never.
Arguments N.ltb : simpl never.
Arguments N.leb : simpl never.
Arguments N.max : simpl never.

Notation cnt_e := (count_occ ev_eq_dec).
Notation cnt_m := (count_occ msg_eq_dec).

Lemma filter_all {A} (f : A -> bool) l : (forall x, In x l -> f x = true) -> filter f l = l.
Proof.
  induction l as [|a l IH]; intros H; cbn; [reflexivity|].
  rewrite (H a (or_introl eq_refl)), IH; auto. intros x Hx; apply H; right; exact Hx.
Qed.

Lemma filter_none {A} (f : A -> bool) l : (forall x, In x l -> f x = false) -> filter f l = [].
Proof.
  induction l as [|a l IH]; intros H; cbn; [reflexivity|].
  rewrite (H a (or_introl eq_refl)), IH; auto. intros x Hx; apply H; right; exact Hx.
Qed.

Lemma cnt_repeat_eq (e : ev) n : cnt_e (repeat e n) e = n.
Proof. apply count_occ_repeat_eq. reflexivity. Qed.

Lemma cnt_repeat_neq (e x : ev) n : e <> x -> cnt_e (repeat e n) x = 0%nat.
Proof. intros H. apply count_occ_repeat_neq. congruence. Qed.

Definition pc_lid (p : pc) : option lid :=
  match p with PcStream i | PcFlushReg i _ => Some i | _ => None end.
Definition is_req (p : pc) : bool :=
  match p with PcSubmitReq _ _ _ | PcStreamReq _ => true | _ => false end.

Lemma rx_alive_lid p : rx_alive p = match pc_lid p with Some _ => true | None => false end.
Proof. destruct p; reflexivity. Qed.

Record CONN_OK (ls : list listener) (log : list ev) (c : conn) (r : connrec) : Prop := mkCO {
  co_lst : forall i, pc_lid (c_pc r) = Some i ->
           exists l, In l ls /\ l_chan l = c /\ l_id l = i /\
                     (forall j, c_job r = Some j -> fcheck (l_filter l) (WvCompleted j) = true);
  co_cnt : forall j i, c_job r = Some j -> pc_lid (c_pc r) = Some i ->
           cnt_e log (WvCompleted j)
           = (cnt_e (c_queue r) (WvCompleted j) + cnt_m (c_sent r) (MEvent (WvCompleted j)))%nat;
  co_req : is_req (c_pc r) = true -> c_queue r = [] /\ c_sent r = [] /\ c_job r = None;
  co_done : forall j, c_job r = Some j -> c_pc r = PcDone -> c_closed r = true;
  co_nopre : forall f m, c_pc r <> PcFlushPre f m;
  co_resp : forall i m, c_pc r = PcFlushReg i m -> exists j w, m = MResp j w
}.

Record LS_OK (ls : list listener) (cs : conn -> option connrec) : Prop := mkLO {
  lo_ids : NoDup (map l_id ls);
  lo_chans : NoDup (map l_chan ls);
  lo_owner : forall l, In l ls -> exists r, cs (l_chan l) = Some r /\ pc_lid (c_pc r) = Some (l_id l)
}.

Definition G_conn (s : wstate) : Prop :=
  LS_OK (w_listeners s) (w_conns s)
  /\ forall c r, w_conns s c = Some r -> CONN_OK (w_listeners s) (w_log s) c r.

Definition listens (ls : list listener) (c : conn) (r : connrec) (i : lid) : Prop :=
  exists l, In l ls /\ l_chan l = c /\ l_id l = i /\
            (forall j, c_job r = Some j -> fcheck (l_filter l) (WvCompleted j) = true).
Definition balanced (log : list ev) (r : connrec) : Prop :=
  forall j, c_job r = Some j ->
    cnt_e log (WvCompleted j) = (cnt_e (c_queue r) (WvCompleted j) + cnt_m (c_sent r) (MEvent (WvCompleted j)))%nat.

Lemma CONN_OK_pc ls log c r :
  CONN_OK ls log c r <->
  match c_pc r with
  | PcSubmitReq _ _ _ | PcStreamReq _ => c_queue r = [] /\ c_sent r = [] /\ c_job r = None
  | PcFlushReg i m => listens ls c r i /\ balanced log r /\ exists j w, m = MResp j w
  | PcStream i => listens ls c r i /\ balanced log r
  | PcFlushPre _ _ => False
  | PcDone => forall j, c_job r = Some j -> c_closed r = true
  end.
Proof.
  split.
  - intros [L C R D N P]. destruct (c_pc r) as [t n f|f|i m|f m|i|]; cbn [pc_lid is_req] in *.
    + apply R; reflexivity.
    + apply R; reflexivity.
    + split; [apply L; reflexivity|]. split; [intros j Hj; apply (C j i Hj); reflexivity | apply (P i m); reflexivity].
    + exact (N f m eq_refl).
    + split; [apply L; reflexivity | intros j Hj; apply (C j i Hj); reflexivity].
    + intros j Hj. apply (D j Hj); reflexivity.
  - intros H. constructor; destruct (c_pc r) as [t n f|f|i m|f m|i|]; cbn [pc_lid is_req]; try discriminate; try (destruct H; fail).
    + intros i0 [= <-]. apply H.
    + intros i0 [= <-]. apply H.
    + intros j i0 Hj _. exact (proj1 (proj2 H) j Hj).
    + intros j i0 Hj _. exact (proj2 H j Hj).
    + intros _. exact H.
    + intros _. exact H.
    + intros j Hj _. exact (H j Hj).
    + intros i0 m0 [= _ <-]. apply H.
Qed.

Lemma listens_incl ls ls' c r i :
  (forall x, In x ls -> l_chan x = c -> In x ls') -> listens ls c r i -> listens ls' c r i.
Proof. intros Hi (l & Hl & Hc & H). exists l. split; [apply Hi; assumption | split; assumption]. Qed.

Lemma G_conn_stream s c r i :
  G_conn s -> w_conns s c = Some r -> c_pc r = PcStream i -> listens (w_listeners s) c r i /\ balanced (w_log s) r.
Proof. intros [_ HC] Hr Hpc. pose proof (proj1 (CONN_OK_pc _ _ _ _) (HC c r Hr)) as H. rewrite Hpc in H. exact H. Qed.

Lemma no_listener_without_rx ls cs c :
  LS_OK ls cs -> conn_alive cs c = false -> forall l, In l ls -> l_chan l <> c.
Proof.
  intros HL Hc l Hl E. destruct (lo_owner _ _ HL l Hl) as (r & Hr & Hp).
  unfold conn_alive in Hc. rewrite <- E, Hr, rx_alive_lid, Hp in Hc. discriminate.
Qed.

Lemma filter_hits_unique e c ls l :
  NoDup (map l_chan ls) -> In l ls -> l_chan l = c ->
  filter (hits e c) ls = if fcheck (l_filter l) e then [l] else [].
Proof.
  induction ls as [|a ls IH]; intros Hn Hl Hc; [destruct Hl|].
  cbn [map] in Hn. inversion Hn as [|? ? Ha Hn']; subst. cbn [filter].
  destruct Hl as [->|Hl].
  - unfold hits at 1. rewrite N.eqb_refl, andb_true_r.
    rewrite (filter_none (hits e (l_chan l)) ls).
    + destruct (fcheck (l_filter l) e); reflexivity.
    + intros x Hx. unfold hits. destruct (l_chan x =? l_chan l) eqn:E; [|apply andb_false_r].
      apply N.eqb_eq in E. exfalso; apply Ha. rewrite <- E. apply in_map; exact Hx.
  - assert (Hne : l_chan a <> l_chan l).
    { intros E. apply Ha. rewrite E. apply in_map; exact Hl. }
    unfold hits at 1. apply N.eqb_neq in Hne. rewrite Hne, andb_false_r. apply IH; auto.
Qed.

Lemma forward_listeners e s : G_conn s -> w_listeners (forward e s) = w_listeners s.
Proof.
  intros [HL _]. cbn [forward w_listeners]. apply filter_all. intros l Hl.
  destruct (lo_owner _ _ HL l Hl) as (r & Hr & Hp). unfold conn_alive. rewrite Hr, rx_alive_lid, Hp.
  apply orb_true_r.
Qed.

(** The listener of [c] is the only one with its channel: what [forward] queues for [c] is what it logs. *)
Lemma forward_balanced e c ls log r r' i :
  NoDup (map l_chan ls) -> listens ls c r i -> balanced log r ->
  c_job r' = c_job r -> c_sent r' = c_sent r ->
  c_queue r' = c_queue r ++ repeat e (length (filter (hits e c) ls)) -> balanced (log ++ [e]) r'.
Proof.
  intros Hn (l & Hl & Hlc & _ & Hf) B Ej Es Eq j Hj. rewrite Ej in Hj. rewrite Eq, Es.
  rewrite !count_occ_app, (B j Hj), (filter_hits_unique e c _ l Hn Hl Hlc).
  destruct (ev_eq_dec e (WvCompleted j)) as [->|Hne].
  - rewrite (Hf j Hj). cbn [length repeat count_occ]. destruct (ev_eq_dec (WvCompleted j) (WvCompleted j)); [lia|congruence].
  - rewrite (cnt_repeat_neq e _ _ Hne). cbn [count_occ]. destruct (ev_eq_dec e (WvCompleted j)); [congruence|lia].
Qed.

Lemma forward_G_conn e s : G_conn s -> G_conn (forward e s).
Proof.
  intros HG. pose proof (forward_listeners e s HG) as EL. destruct HG as [HL HC]. split.
  - rewrite EL. constructor; [apply (lo_ids _ _ HL)|apply (lo_chans _ _ HL)|].
    intros l Hl. destruct (lo_owner _ _ HL l Hl) as (r & Hr & Hp).
    cbn [forward w_conns]. rewrite Hr. destruct (rx_alive (c_pc r)); eexists; split; try reflexivity; exact Hp.
  - intros c r2 Hr2. rewrite EL. cbn [forward w_conns w_log] in *.
    destruct (w_conns s c) as [r|] eqn:Hr; [|discriminate].
    specialize (HC c r Hr). apply CONN_OK_pc in HC. apply CONN_OK_pc.
    (* without receiver the record stays, and its condition does not mention the log *)
    destruct (c_pc r) as [t n f|f|i m|f m|i|] eqn:Hpc; cbn [rx_alive] in Hr2; injection Hr2 as <-;
      cbn [c_pc]; rewrite ?Hpc; try exact HC.
    + destruct HC as (L & B & P). split; [exact L|]. split; [|exact P].
      apply (forward_balanced e c _ _ r _ i (lo_chans _ _ HL) L B); reflexivity.
    + destruct HC as (L & B). split; [exact L|].
      apply (forward_balanced e c _ _ r _ i (lo_chans _ _ HL) L B); reflexivity.
Qed.

Lemma G_conn_ext s s' :
  w_listeners s' = w_listeners s -> w_conns s' = w_conns s -> w_log s' = w_log s -> G_conn s -> G_conn s'.
Proof. unfold G_conn. intros -> -> ->. auto. Qed.

Lemma CONN_OK_incl ls ls' log c r :
  (forall x, In x ls -> l_chan x = c -> In x ls') -> CONN_OK ls log c r -> CONN_OK ls' log c r.
Proof.
  intros Hi HC. apply CONN_OK_pc in HC. apply CONN_OK_pc.
  destruct (c_pc r); try exact HC; (split; [apply (listens_incl ls); [exact Hi | apply HC] | apply HC]).
Qed.

Lemma CONN_OK_same ls log c r r' :
  c_pc r' = c_pc r -> c_queue r' = c_queue r -> c_sent r' = c_sent r -> c_job r' = c_job r ->
  (c_closed r = true -> c_closed r' = true) ->
  CONN_OK ls log c r -> CONN_OK ls log c r'.
Proof.
  intros Ep Eq Es Ej Ec HC. apply CONN_OK_pc in HC. apply CONN_OK_pc.
  rewrite Ep. unfold listens, balanced. rewrite Eq, Es, Ej.
  destruct (c_pc r); try exact HC. intros j Hj. apply Ec. exact (HC j Hj).
Qed.

Lemma G_conn_update c r' ls' s :
  G_conn s -> NoDup (map l_id ls') -> NoDup (map l_chan ls') ->
  (forall l, In l ls' -> l_chan l = c -> pc_lid (c_pc r') = Some (l_id l)) ->
  (forall l, l_chan l <> c -> In l ls' <-> In l (w_listeners s)) ->
  CONN_OK ls' (w_log s) c r' -> G_conn (set_conn c r' (set_listeners ls' s)).
Proof.
  intros [HL HC] Hids Hch Hown Hoth Hok. split; cbn [set_conn set_listeners w_listeners w_conns w_log].
  - constructor; [exact Hids | exact Hch |]. intros l Hl. destruct (l_chan l =? c) eqn:E.
    + apply N.eqb_eq in E. eexists; split; [reflexivity|]. apply Hown; assumption.
    + apply N.eqb_neq in E. apply (lo_owner _ _ HL l). apply Hoth; assumption.
  - intros c' r2. destruct (c' =? c) eqn:E.
    + apply N.eqb_eq in E; subst c'. intros [= <-]. exact Hok.
    + intros H. apply N.eqb_neq in E. apply (CONN_OK_incl (w_listeners s)); [|exact (HC c' r2 H)].
      intros x Hx Hxc. apply Hoth; [congruence | exact Hx].
Qed.

Lemma set_conn_G_conn_gen c r' s :
  G_conn s ->
  (forall l, In l (w_listeners s) -> l_chan l = c -> pc_lid (c_pc r') = Some (l_id l)) ->
  CONN_OK (w_listeners s) (w_log s) c r' -> G_conn (set_conn c r' s).
Proof.
  intros HG Hown Hok.
  exact (G_conn_update c r' _ s HG (lo_ids _ _ (proj1 HG)) (lo_chans _ _ (proj1 HG)) Hown (fun l _ => iff_refl _) Hok).
Qed.

Lemma set_conn_G_conn c r r' s :
  G_conn s -> w_conns s c = Some r -> pc_lid (c_pc r') = pc_lid (c_pc r) ->
  CONN_OK (w_listeners s) (w_log s) c r' -> G_conn (set_conn c r' s).
Proof.
  intros HG Hr Hp Hok. apply set_conn_G_conn_gen; auto.
  intros l Hl Hc. destruct HG as [HL _]. destruct (lo_owner _ _ HL l Hl) as (r0 & Hr0 & Hp0).
  rewrite Hc, Hr in Hr0. inversion Hr0; subst. congruence.
Qed.

Lemma max_lid_ge ls l : In l ls -> l_id l <= max_lid ls.
Proof.
  unfold max_lid. induction ls as [|a ls IH]; intros H; [destruct H|]. cbn [map fold_right].
  destruct H as [->|H]; [lia|]. specialize (IH H). lia.
Qed.

Lemma register_ok cf flt c s i s2 :
  cf_id_max cf = true -> register cf flt c s = Ok (i, s2) ->
  i = max_lid (w_listeners s) + 1 /\ s2 = set_listeners (w_listeners s ++ [mkL i flt c]) s.
Proof.
  unfold register, next_lid. intros ->. destruct (u32_max <? _); [discriminate|].
  intros H; inversion H; subst. split; reflexivity.
Qed.

Lemma register_G_conn cf flt c r r' i s2 s :
  cf_id_max cf = true -> G_conn s -> w_conns s c = Some r -> pc_lid (c_pc r) = None ->
  register cf flt c s = Ok (i, s2) -> pc_lid (c_pc r') = Some i ->
  CONN_OK (w_listeners s2) (w_log s) c r' -> G_conn (set_conn c r' s2).
Proof.
  intros Hcf HG Hr Hp Hreg Hp' Hok. pose proof (proj1 HG) as HL.
  destruct (register_ok _ _ _ _ _ _ Hcf Hreg) as [Hi ->].
  assert (Hnc : forall l, In l (w_listeners s) -> l_chan l <> c).
  { apply (no_listener_without_rx _ _ _ HL). unfold conn_alive. rewrite Hr, rx_alive_lid, Hp. reflexivity. }
  apply G_conn_update; [exact HG | | | | | exact Hok].
  - rewrite map_app. cbn [map l_id]. apply NoDup_snoc; [apply (lo_ids _ _ HL)|].
    intros Hin. apply in_map_iff in Hin. destruct Hin as (l & Hli & Hl).
    pose proof (max_lid_ge _ _ Hl). lia.
  - rewrite map_app. cbn [map l_chan]. apply NoDup_snoc; [apply (lo_chans _ _ HL)|].
    intros Hin. apply in_map_iff in Hin. destruct Hin as (l & Hlc & Hl). exact (Hnc l Hl Hlc).
  - intros l Hl Hlc. apply in_app_iff in Hl. destruct Hl as [Hl|[<-|[]]]; [destruct (Hnc l Hl Hlc) | exact Hp'].
  - intros l Hlc. rewrite in_app_iff. split; [intros [Hl|[<-|[]]]; [exact Hl | destruct Hlc; reflexivity] | auto].
Qed.

Lemma remove_first_spec i ls l :
  NoDup (map l_id ls) -> In l ls -> l_id l = i -> exists a b, ls = a ++ l :: b /\ remove_first i ls = Some (a ++ b).
Proof.
  intros Hn Hl <-. induction ls as [|x ls IH]; [destruct Hl|].
  cbn [map] in Hn. inversion Hn as [|? ? Hx Hn']; subst. cbn [remove_first]. destruct Hl as [->|Hl].
  - rewrite N.eqb_refl. exists [], ls. auto.
  - destruct (l_id x =? l_id l) eqn:E.
    + apply N.eqb_eq in E. exfalso. apply Hx. rewrite E. apply in_map. exact Hl.
    + destruct (IH Hn' Hl) as (a & b & -> & ->). exists (x :: a), b. auto.
Qed.

Lemma unregister_G_conn c r r' i s :
  G_conn s -> w_conns s c = Some r -> c_pc r = PcStream i ->
  c_pc r' = PcDone -> (forall j, c_job r' = Some j -> c_closed r' = true) ->
  exists s', unregister i s = Ok s' /\ G_conn (set_conn c r' s').
Proof.
  intros HG Hr Hpc Hpc' Hcl.
  destruct (G_conn_stream _ _ _ _ HG Hr Hpc) as [(l & Hl & Hlc & Hli & _) _]. destruct HG as [HL HC].
  destruct (remove_first_spec i _ l (lo_ids _ _ HL) Hl Hli) as (a & b & Els & Hrm).
  unfold unregister. rewrite Hrm. eexists; split; [reflexivity|].
  pose proof (lo_ids _ _ HL) as Hids. pose proof (lo_chans _ _ HL) as Hch.
  rewrite Els in Hids, Hch. rewrite map_app in Hids, Hch. cbn [map] in Hids, Hch.
  assert (Hnc : forall x, In x (a ++ b) -> l_chan x <> c).
  { intros x Hx E. apply NoDup_remove_2 in Hch. apply Hch. rewrite <- map_app. rewrite Hlc, <- E. apply in_map; exact Hx. }
  apply G_conn_update; [split; assumption | | | | |].
  - rewrite map_app. exact (NoDup_remove_1 _ _ _ Hids).
  - rewrite map_app. exact (NoDup_remove_1 _ _ _ Hch).
  - intros x Hx Hxc. destruct (Hnc x Hx Hxc).
  - intros x Hxc. rewrite Els, !in_app_iff. cbn [In]. split; [tauto|]. intros [H|[->|H]]; [auto | congruence | auto].
  - apply CONN_OK_pc. rewrite Hpc'. exact Hcl.
Qed.

Definition live (jr : jrec) : Prop := 0 < jr_active jr \/ jr_open jr = true.
Definition quiet (e : ev) : Prop := forall j, e <> WvCompleted j.

Definition new_job (jr : jrec) (s : wstate) : wstate :=
  mkW (fun j' => if j' =? w_next_job s then Some jr else w_jobs s j') (w_next_job s + 1)
      (w_listeners s) (w_conns s) (w_log s).

(** The record of a job is replaced, events are forwarded (the last of [es] first), and the job is
    checked for termination. *)
Definition job_update (j : jobid) (jr : jrec) (es : list ev) (s : wstate) : wstate :=
  wcheck_termination j (fold_right forward (wset_job j (Some jr) s) es).

(** What the environment does to a state: nothing; it updates a job that is not terminated yet
    (tasks end or are cancelled, the job is closed) with events that are not completions; it
    creates a job; it adds tasks to an open job; it forgets a job; it forwards one event. *)
Inductive env_shape (s : wstate) : wstate -> Prop :=
| ES_same : env_shape s s
| ES_update j jr0 jr es : w_jobs s j = Some jr0 -> live jr0 -> Forall quiet es -> env_shape s (job_update j jr es s)
| ES_new jr e : quiet e -> env_shape s (new_job jr (forward e s))
| ES_add j jr0 jr : w_jobs s j = Some jr0 -> jr_open jr0 = true ->
                    env_shape s (wset_job j (Some jr) (forward (WvSubmit j) s))
| ES_forget j : env_shape s (wset_job j None s)
| ES_forward e : quiet e -> env_shape s (forward e s).

Lemma do_submit_shape target n s j s1 :
  do_submit target n s = Some (j, s1) ->
  (target = None /\ j = w_next_job s /\ s1 = new_job (mkJ false n) (forward (WvSubmit j) s)) \/
  (exists jr, target = Some j /\ w_jobs s j = Some jr /\ jr_open jr = true /\
              s1 = wset_job j (Some (mkJ true (jr_active jr + n))) (forward (WvSubmit j) s)).
Proof.
  unfold do_submit. destruct target as [j0|].
  - destruct (w_jobs s j0) as [jr|] eqn:Hj; [|discriminate]. destruct (jr_open jr) eqn:Ho; [|discriminate].
    intros [= <- <-]. right. exists jr. auto.
  - intros [= <- <-]. left. auto.
Qed.

Lemma env_step_shape e s : env_shape s (env_step e s).
Proof.
  destruct e as [j k|j k| |target n|j|j|]; cbn [env_step].
  - destruct (w_jobs s j) as [jr|] eqn:Hj; [|constructor].
    destruct ((0 <? k) && (k <=? jr_active jr)) eqn:Hk; [|constructor].
    apply (ES_update s j jr _ [WvTask j] Hj); [left; lia | repeat constructor; intros ?; discriminate].
  - destruct (w_jobs s j) as [jr|] eqn:Hj; [|constructor].
    destruct ((0 <? k) && (k <=? jr_active jr)) eqn:Hk; [|constructor].
    apply (ES_update s j jr _ [WvTask j; WvCancel j] Hj); [left; lia | repeat constructor; intros ?; discriminate].
  - apply (ES_new s (mkJ true 0) (WvOpen (w_next_job s))). intros ?; discriminate.
  - destruct (do_submit target n s) as [[j s1]|] eqn:DS; [|constructor].
    destruct (do_submit_shape _ _ _ _ _ DS) as [(_ & _ & ->)|(jr & _ & Hj & Ho & ->)].
    + apply ES_new. intros ?; discriminate.
    + exact (ES_add s j jr _ Hj Ho).
  - destruct (w_jobs s j) as [jr|] eqn:Hj; [|constructor]. destruct (jr_open jr) eqn:Ho; [|constructor].
    apply (ES_update s j jr _ [WvClose j] Hj); [right; exact Ho | repeat constructor; intros ?; discriminate].
  - destruct (w_jobs s j) as [jr|]; [|constructor].
    destruct (negb (jr_open jr) && (jr_active jr =? 0)); constructor.
  - apply ES_forward. intros ?; discriminate.
Qed.

Record G_jobs (s : wstate) : Prop := mkGJ {
  gj_lt : forall j jr, w_jobs s j = Some jr -> j < w_next_job s;
  gj_done : forall j, In (WvCompleted j) (w_log s) ->
            j < w_next_job s /\ forall jr, w_jobs s j = Some jr -> jr_open jr = false /\ jr_active jr = 0;
  gj_once : forall j, (cnt_e (w_log s) (WvCompleted j) <= 1)%nat
}.

Lemma cnt_snoc (l : list ev) e x : cnt_e (l ++ [e]) x = (cnt_e l x + if ev_eq_dec e x then 1 else 0)%nat.
Proof. rewrite count_occ_app. cbn [count_occ]. destruct (ev_eq_dec e x); reflexivity. Qed.

Lemma forward_jobs e s :
  w_jobs (forward e s) = w_jobs s /\ w_next_job (forward e s) = w_next_job s /\ w_log (forward e s) = w_log s ++ [e].
Proof. repeat split. Qed.

Lemma forward_G_jobs_other e s : (forall j, e <> WvCompleted j) -> G_jobs s -> G_jobs (forward e s).
Proof.
  intros Hne HG. constructor; cbn [forward w_jobs w_next_job w_log].
  - apply (gj_lt _ HG).
  - intros j Hin. apply in_app_iff in Hin. destruct Hin as [Hin|[Hin|[]]]; [apply (gj_done _ HG j Hin)|].
    exfalso; exact (Hne j Hin).
  - intros j. rewrite cnt_snoc. destruct (ev_eq_dec e (WvCompleted j)) as [E|_]; [exfalso; exact (Hne j E)|].
    pose proof (gj_once _ HG j). lia.
Qed.

Lemma check_termination_G_jobs j s :
  G_jobs s -> ~ In (WvCompleted j) (w_log s) -> G_jobs (wcheck_termination j s).
Proof.
  intros HG Hnin. unfold wcheck_termination. destruct (w_jobs s j) as [jr|] eqn:Hj; [|exact HG].
  destruct (jr_active jr =? 0) eqn:Ha; [|exact HG]. destruct (jr_open jr) eqn:Ho.
  - apply forward_G_jobs_other; [intros j'; discriminate|exact HG].
  - apply N.eqb_eq in Ha. constructor; cbn [forward w_jobs w_next_job w_log].
    + apply (gj_lt _ HG).
    + intros j' Hin. apply in_app_iff in Hin. destruct Hin as [Hin|[Hin|[]]]; [apply (gj_done _ HG j' Hin)|].
      inversion Hin; subst j'. split; [apply (gj_lt _ HG j jr Hj)|]. intros jr' Hj'. rewrite Hj in Hj'. inversion Hj'; subst. auto.
    + intros j'. rewrite cnt_snoc. destruct (ev_eq_dec (WvCompleted j) (WvCompleted j')) as [E|_].
      * inversion E; subst j'. rewrite (proj1 (count_occ_not_In ev_eq_dec _ _) Hnin). lia.
      * pose proof (gj_once _ HG j'). lia.
Qed.

Lemma check_termination_log j s : ~ In (WvCompleted j) (w_log s) -> forall j', j' <> j -> In (WvCompleted j') (w_log (wcheck_termination j s)) -> In (WvCompleted j') (w_log s).
Proof.
  intros _ j' Hne. unfold wcheck_termination. destruct (w_jobs s j) as [jr|]; [|auto].
  destruct (jr_active jr =? 0); [|auto]. destruct (jr_open jr); cbn [forward w_log]; intros Hin;
    apply in_app_iff in Hin; destruct Hin as [Hin|[Hin|[]]]; auto; inversion Hin; congruence.
Qed.

Lemma set_job_G_jobs j jr0 jr s :
  G_jobs s -> w_jobs s j = Some jr0 -> ~ In (WvCompleted j) (w_log s) -> G_jobs (wset_job j (Some jr) s).
Proof.
  intros HG Hj Hnin. constructor; cbn [wset_job w_jobs w_next_job w_log].
  - intros j' jr'. destruct (j' =? j) eqn:E; [|apply (gj_lt _ HG)].
    apply N.eqb_eq in E; subst j'. intros _. apply (gj_lt _ HG j jr0 Hj).
  - intros j' Hin. destruct (gj_done _ HG j' Hin) as [Hlt Hr]. split; [exact Hlt|].
    destruct (j' =? j) eqn:E; [|exact Hr]. apply N.eqb_eq in E; subst j'. contradiction.
  - apply (gj_once _ HG).
Qed.

Lemma forget_G_jobs j s : G_jobs s -> G_jobs (wset_job j None s).
Proof.
  intros HG. constructor; cbn [wset_job w_jobs w_next_job w_log].
  - intros j' jr'. destruct (j' =? j); [discriminate|apply (gj_lt _ HG)].
  - intros j' Hin. destruct (gj_done _ HG j' Hin) as [Hlt Hr]. split; [exact Hlt|].
    destruct (j' =? j); [discriminate|exact Hr].
  - apply (gj_once _ HG).
Qed.

Lemma new_job_G_jobs jr s1 : G_jobs s1 -> G_jobs (new_job jr s1).
Proof.
  intros HG. constructor; cbn [new_job w_jobs w_next_job w_log].
  - intros j' jr'. destruct (j' =? w_next_job s1) eqn:E; [apply N.eqb_eq in E; lia|].
    intros H. pose proof (gj_lt _ HG j' jr' H). lia.
  - intros j' Hin. destruct (gj_done _ HG j' Hin) as [Hlt Hr]. split; [lia|].
    destruct (j' =? w_next_job s1) eqn:E; [apply N.eqb_eq in E; lia|exact Hr].
  - apply (gj_once _ HG).
Qed.

Lemma not_completed_active s j jr :
  G_jobs s -> w_jobs s j = Some jr -> live jr -> ~ In (WvCompleted j) (w_log s).
Proof.
  intros HG Hj Hact Hin. destruct (gj_done _ HG j Hin) as [_ Hr]. destruct (Hr jr Hj) as [Ho Ha].
  destruct Hact as [H|H]; [lia|congruence].
Qed.

Lemma not_in_snoc_other (l : list ev) e x : ~ In x l -> e <> x -> ~ In x (l ++ [e]).
Proof. intros H1 H2 H. apply in_app_iff in H. destruct H as [H|[H|[]]]; auto. Qed.

Lemma shape_G_jobs s s' : env_shape s s' -> G_jobs s -> G_jobs s'.
Proof.
  intros H HG. destruct H as [|j jr0 jr es Hj Hl Hes|jr e He|j jr0 jr Hj Ho|j|e He].
  - exact HG.
  - pose proof (not_completed_active s j jr0 HG Hj Hl) as Hnin. apply check_termination_G_jobs.
    + induction Hes as [|e es He _ IH]; cbn [fold_right];
        [apply (set_job_G_jobs j jr0); assumption | apply forward_G_jobs_other; assumption].
    + induction Hes as [|e es He _ IH]; cbn [fold_right forward w_log];
        [exact Hnin | apply not_in_snoc_other; [exact IH | apply He]].
  - apply new_job_G_jobs, forward_G_jobs_other; assumption.
  - apply (set_job_G_jobs j jr0); [apply forward_G_jobs_other; [intros ?; discriminate | exact HG] | exact Hj |].
    cbn [forward w_log]. apply not_in_snoc_other; [|discriminate].
    apply (not_completed_active s j jr0 HG Hj). right. exact Ho.
  - apply forget_G_jobs, HG.
  - apply forward_G_jobs_other; assumption.
Qed.

Lemma env_step_G_jobs e s : G_jobs s -> G_jobs (env_step e s).
Proof. exact (shape_G_jobs _ _ (env_step_shape e s)). Qed.

Lemma do_submit_fresh target n s j s1 :
  G_jobs s -> do_submit target n s = Some (j, s1) -> ~ In (WvCompleted j) (w_log s1).
Proof.
  intros HG DS. destruct (do_submit_shape _ _ _ _ _ DS) as [(_ & -> & ->)|(jr & _ & Hj & Ho & ->)];
    cbn [new_job wset_job forward w_log]; (apply not_in_snoc_other; [|discriminate]).
  - intros Hin. destruct (gj_done _ HG _ Hin) as [Hlt _]. lia.
  - apply (not_completed_active s j jr HG Hj). right. exact Ho.
Qed.

Definition same_jobs (s s' : wstate) : Prop :=
  w_jobs s' = w_jobs s /\ w_next_job s' = w_next_job s /\ w_log s' = w_log s.

Lemma G_jobs_ext s s' : same_jobs s s' -> G_jobs s -> G_jobs s'.
Proof. intros (E1 & E2 & E3) HG. constructor; rewrite ?E1, ?E2, ?E3; apply HG. Qed.

Lemma check_termination_G_conn j s : G_conn s -> G_conn (wcheck_termination j s).
Proof.
  intros HG. unfold wcheck_termination. destruct (w_jobs s j) as [jr|]; [|exact HG].
  destruct (jr_active jr =? 0); [|exact HG]. destruct (jr_open jr); apply forward_G_conn; exact HG.
Qed.

Lemma shape_G_conn s s' : env_shape s s' -> G_conn s -> G_conn s'.
Proof.
  intros H HG. destruct H as [|j jr0 jr es _ _ _|jr e _|j jr0 jr _ _|j|e _].
  - exact HG.
  - apply check_termination_G_conn. induction es as [|e es IH]; cbn [fold_right];
      [apply (G_conn_ext s); try reflexivity; exact HG | apply forward_G_conn, IH].
  - apply (G_conn_ext (forward e s)); try reflexivity. apply forward_G_conn, HG.
  - apply (G_conn_ext (forward (WvSubmit j) s)); try reflexivity. apply forward_G_conn, HG.
  - apply (G_conn_ext s); try reflexivity; exact HG.
  - apply forward_G_conn, HG.
Qed.

Lemma env_step_G_conn e s : G_conn s -> G_conn (env_step e s).
Proof. exact (shape_G_conn _ _ (env_step_shape e s)). Qed.

Lemma do_submit_G_conn target n s j s1 :
  G_conn s -> do_submit target n s = Some (j, s1) -> G_conn s1.
Proof. intros HG DS. pose proof (env_step_G_conn (ESubmit target n) s HG) as H. cbn [env_step] in H. rewrite DS in H. exact H. Qed.

Lemma bind_register cf f c s (k : lid * wstate -> res wstate) s' :
  (do x <- register cf f c s; k x) = Ok s' -> exists i, k (i, set_listeners (w_listeners s ++ [mkL i f c]) s) = Ok s'.
Proof. unfold register. destruct (u32_max <? _); [discriminate|]. cbn [bind]. eauto. Qed.

Lemma bind_unregister i s (k : wstate -> res wstate) s' :
  (do s1 <- unregister i s; k s1) = Ok s' -> exists ls, k (set_listeners ls s) = Ok s'.
Proof. unfold unregister. destruct (remove_first i (w_listeners s)); [|discriminate]. cbn [bind]. eauto. Qed.

Lemma conn_step_jobs cf c s s' :
  conn_step cf c s = Ok s' ->
  same_jobs (match w_conns s c with
             | Some r => match c_pc r with PcSubmitReq target n _ => env_step (ESubmit target n) s | _ => s end
             | None => s
             end) s'.
Proof.
  unfold conn_step. destruct (w_conns s c) as [r|]; [|intros [= <-]; repeat split].
  destruct (c_pc r) as [target n flt|flt|i m|flt m|i|]; cbn [env_step].
  - destruct (do_submit target n s) as [[j s1]|]; [|intros [= <-]; repeat split]. cbv zeta.
    destruct (cf_reg_first cf), (cf_journal cf); cbv iota; intros H.
    1,2,4: apply bind_register in H; destruct H as [i H].
    all: injection H as <-; repeat split.
  - intros H. apply bind_register in H. destruct H as [i H]. injection H as <-. repeat split.
  - destruct (c_flushed r); intros [= <-]; repeat split.
  - destruct (c_flushed r); intros H; [apply bind_register in H; destruct H as [i H]|]; injection H as <-; repeat split.
  - destruct (c_closed r); [|destruct (c_queue r); [destruct (sender_alive s c)|]]; intros H.
    1,3: apply bind_unregister in H; destruct H as [ls H].
    all: injection H as <-; repeat split.
  - intros [= <-]; repeat split.
Qed.

Lemma conn_step_job_side cf c s s' (P : wstate -> Prop) :
  (forall e s, P s -> P (env_step e s)) -> (forall s s', same_jobs s s' -> P s -> P s') ->
  P s -> conn_step cf c s = Ok s' -> P s'.
Proof.
  intros Henv Hext HP H. apply (Hext _ _ (conn_step_jobs _ _ _ _ H)).
  destruct (w_conns s c) as [r|]; [destruct (c_pc r)|]; auto.
Qed.

Lemma step_job_side cf s l s' (P : wstate -> Prop) :
  (forall e s, P s -> P (env_step e s)) -> (forall s s', same_jobs s s' -> P s -> P s') ->
  P s -> wstep cf s l = Ok s' -> P s'.
Proof.
  intros Henv Hext HP. assert (Hset : forall c r, P (set_conn c r s)) by (intros; apply (Hext s); [repeat split | exact HP]).
  destruct l as [c rq|c|c|c|e|c]; cbn [wstep].
  - destruct (w_conns s c); intros [= <-]; [exact HP | apply Hset].
  - apply conn_step_job_side; assumption.
  - destruct (w_conns s c) as [r|]; [|intros [= <-]; exact HP].
    destruct (c_pc r); intros [= <-]; try exact HP; apply Hset.
  - destruct (w_conns s c); intros [= <-]; [apply Hset | exact HP].
  - intros [= <-]. apply Henv, HP.
  - intros [= <-]. exact HP.
Qed.

Definition INV (s : wstate) : Prop := G_conn s /\ G_jobs s.

Definition cur (cf : cfg) : Prop := cf_reg_first cf = true /\ cf_id_max cf = true.

Lemma cnt_m_snoc (l : list msg) m x : cnt_m (l ++ [m]) x = (cnt_m l x + if msg_eq_dec m x then 1 else 0)%nat.
Proof. rewrite count_occ_app. cbn [count_occ]. destruct (msg_eq_dec m x); reflexivity. Qed.

(** The handler's run on a submit request that the job layer accepts, in the current order: the
    listener is registered in the same run; with a journal the response waits for the flush. *)
Lemma submit_step cf c s r target n flt j s1 s' :
  cf_reg_first cf = true -> w_conns s c = Some r -> c_pc r = PcSubmitReq target n flt ->
  do_submit target n s = Some (j, s1) -> conn_step cf c s = Ok s' ->
  let flt' := match f_jobs flt with
              | None => mkF (Some [j]) (f_job_ev flt) (f_task_ev flt) (f_worker_ev flt)
              | Some _ => flt end in
  let m := MResp j (client_waits s1 j) in
  exists i r',
    register cf flt' c s1 = Ok (i, set_listeners (w_listeners s1 ++ [mkL i flt' c]) s1) /\
    s' = set_conn c r' (set_listeners (w_listeners s1 ++ [mkL i flt' c]) s1) /\ w_conns s1 c = Some r /\
    c_job r' = (if fcheck flt' (WvCompleted j) then Some j else None) /\ c_queue r' = c_queue r /\
    ((c_pc r' = PcFlushReg i m /\ c_sent r' = c_sent r) \/ (c_pc r' = PcStream i /\ c_sent r' = c_sent r ++ [m])).
Proof.
  intros Hrf Hr Hpc DS. unfold conn_step. rewrite Hr, Hpc, DS, Hrf. cbv zeta.
  assert (Hr1 : w_conns s1 c = Some r).
  { (* [do_submit] touches the connections by one [forward], which leaves one without receiver alone *)
    assert (E : w_conns s1 = w_conns (forward (WvSubmit j) s)).
    { unfold do_submit in DS.
      destruct target as [j0|]; [destruct (w_jobs s j0) as [jr|]; [destruct (jr_open jr)|]|]; try discriminate;
        injection DS as <- <-; reflexivity. }
    rewrite E. cbn [forward w_conns]. rewrite Hr, Hpc. reflexivity. }
  unfold get. rewrite Hr1. unfold register. destruct (u32_max <? _); [discriminate|]. cbn [bind].
  destruct (cf_journal cf); intros [= <-]; eexists _, _; do 3 (split; [reflexivity|]);
    cbn [with_pc send c_pc c_job c_queue c_sent]; auto.
Qed.

Lemma listens_alive s c r i : listens (w_listeners s) c r i -> sender_alive s c = true.
Proof. intros (l & Hl & Hlc & _). apply existsb_exists. exists l. split; [exact Hl | apply N.eqb_eq; exact Hlc]. Qed.

Lemma conn_step_G_conn cf c s s' : cur cf -> INV s -> conn_step cf c s = Ok s' -> G_conn s'.
Proof.
  intros [Hrf Hidm] [HG HJ] H. generalize H. unfold conn_step.
  destruct (w_conns s c) as [r|] eqn:Hr; [|intros [= <-]; exact HG].
  pose proof (proj2 HG c r Hr) as HC. apply CONN_OK_pc in HC.
  destruct (c_pc r) as [target n flt|flt|i m|flt m|i|] eqn:Hpc.
  - (* Submit(msg, Some(stream)) *)
    destruct HC as (Hq & Hs & Hjb).
    destruct (do_submit target n s) as [[j s1]|] eqn:DS.
    + pose proof (do_submit_fresh _ _ _ _ _ HJ DS) as Hnin.
      pose proof (do_submit_G_conn _ _ _ _ _ HG DS) as HG1. intros _.
      destruct (submit_step _ _ _ _ _ _ _ _ _ _ Hrf Hr Hpc DS H) as (i & r' & Hreg & -> & Hr1 & Ej & Eq & Hk).
      set (flt' := match f_jobs flt with None => _ | Some _ => flt end) in *.
      apply (register_G_conn cf flt' c r r' i _ s1 Hidm HG1 Hr1);
        [rewrite Hpc; reflexivity | exact Hreg | destruct Hk as [[-> _]|[-> _]]; reflexivity |].
      (* the new record waits for [j] only if the new listener accepts its completion, and no
         completion of [j] is logged, queued or sent yet *)
      assert (Hj0 : forall j0, c_job r' = Some j0 -> j0 = j /\ fcheck flt' (WvCompleted j) = true).
      { intros j0. rewrite Ej. destruct (fcheck flt' (WvCompleted j)); intros [= <-]; auto. }
      assert (L : listens (w_listeners s1 ++ [mkL i flt' c]) c r' i).
      { exists (mkL i flt' c). split; [apply in_app_iff; right; left; reflexivity|]. repeat split.
        intros j0 Hj. destruct (Hj0 j0 Hj) as [-> F]. exact F. }
      assert (B : balanced (w_log s1) r').
      { intros j0 Hj. destruct (Hj0 j0 Hj) as [-> _]. rewrite Eq, Hq, (proj1 (count_occ_not_In ev_eq_dec _ _) Hnin).
        destruct Hk as [[_ ->]|[_ ->]]; rewrite Hs; reflexivity. }
      apply CONN_OK_pc. destruct Hk as [[-> _]|[-> _]]; [split; [exact L | split; [exact B | eauto]] | split; [exact L | exact B]].
    + intros [= <-]. apply (set_conn_G_conn c r _ s HG Hr); [rewrite Hpc; reflexivity|].
      apply CONN_OK_pc. cbn [with_pc send c_pc c_job]. intros j Hj. rewrite Hjb in Hj. discriminate.
  - (* StreamEvents(msg) *)
    destruct HC as (Hq & Hs & Hjb).
    destruct (register cf flt c s) as [[i s2]| |] eqn:Hreg; cbn [bind]; try discriminate.
    destruct (register_ok _ _ _ _ _ _ Hidm Hreg) as [_ Es2]. intros [= <-].
    apply (register_G_conn cf flt c r _ i s2 s Hidm HG Hr); [rewrite Hpc; reflexivity|exact Hreg|reflexivity|].
    apply CONN_OK_pc. cbn [with_pc c_pc].
    assert (Hno : forall j, c_job (with_pc r (PcStream i)) <> Some j) by (intros j; cbn [with_pc c_job]; rewrite Hjb; discriminate).
    split; [|intros j Hj; destruct (Hno j Hj)].
    exists (mkL i flt c). rewrite Es2. cbn [set_listeners w_listeners]. split; [apply in_app_iff; right; left; reflexivity|].
    split; [reflexivity|]. split; [reflexivity|]. intros j Hj. destruct (Hno j Hj).
  - (* resumed after the journal flush *)
    destruct HC as (L & B & jm & wm & ->).
    destruct (c_flushed r); intros [= <-]; [|exact HG].
    apply (set_conn_G_conn c r _ s HG Hr); [rewrite Hpc; reflexivity|].
    apply CONN_OK_pc. cbn [with_pc send c_pc]. split; [exact L|].
    intros j Hj. cbn [with_pc send c_queue c_sent]. rewrite cnt_m_snoc, (B j Hj).
    destruct (msg_eq_dec (MResp jm wm) (MEvent (WvCompleted j))); [discriminate|lia].
  - destruct HC.
  - (* stream_events *)
    destruct HC as (L & B). destruct (c_closed r) eqn:Hcl.
    + destruct (unregister_G_conn c r (with_pc r PcDone) i s HG Hr Hpc eq_refl) as (s2 & Hun & HG2); [intros j _; exact Hcl|].
      rewrite Hun. intros [= <-]. exact HG2.
    + destruct (c_queue r) as [|e q] eqn:Hq.
      * rewrite (listens_alive _ _ _ _ L). intros [= <-]. exact HG.
      * intros [= <-]. apply (set_conn_G_conn c r _ s HG Hr); [cbn [c_pc]; rewrite Hpc; reflexivity|].
        apply CONN_OK_pc. cbn [c_pc]. split; [exact L|].
        intros j Hj. cbn [c_queue c_sent]. rewrite cnt_m_snoc. specialize (B j Hj). rewrite Hq in B. cbn [count_occ] in B. rewrite B.
        destruct (ev_eq_dec e (WvCompleted j)) as [->|Hne].
        -- destruct (msg_eq_dec (MEvent (WvCompleted j)) (MEvent (WvCompleted j))); [lia|congruence].
        -- destruct (msg_eq_dec (MEvent e) (MEvent (WvCompleted j))) as [E|_]; [inversion E; congruence|lia].
  - intros [= <-]. exact HG.
Qed.

Lemma INV_init : INV init.
Proof.
  split.
  - split.
    + constructor; cbn; [constructor|constructor|intros l []].
    + intros c r H; discriminate.
  - constructor; cbn.
    + intros j jr H; discriminate.
    + intros j [].
    + intros j; lia.
Qed.

Lemma set_conn_flag c r r' s :
  G_conn s -> w_conns s c = Some r ->
  c_pc r' = c_pc r -> c_queue r' = c_queue r -> c_sent r' = c_sent r -> c_job r' = c_job r ->
  (c_closed r = true -> c_closed r' = true) -> G_conn (set_conn c r' s).
Proof.
  intros HG Hr Ep Eq Es Ej Ec. apply (set_conn_G_conn c r _ s HG Hr); [rewrite Ep; reflexivity|].
  exact (CONN_OK_same _ _ _ r r' Ep Eq Es Ej Ec (proj2 HG c r Hr)).
Qed.

Lemma step_INV cf s l s' : cur cf -> INV s -> wstep cf s l = Ok s' -> INV s'.
Proof.
  intros Hcur [HG HJ] H. split; [|exact (step_job_side _ _ _ _ _ env_step_G_jobs G_jobs_ext HJ H)].
  revert H. destruct l as [c rq|c|c|c|e|c]; cbn [wstep].
  - destruct (w_conns s c) as [r|] eqn:Hr; intros [= <-]; [exact HG|]. apply set_conn_G_conn_gen; [exact HG| |].
    + assert (Hna : conn_alive (w_conns s) c = false) by (unfold conn_alive; rewrite Hr; reflexivity).
      intros l Hl Hc. destruct (no_listener_without_rx _ _ _ (proj1 HG) Hna l Hl Hc).
    + apply CONN_OK_pc. destruct rq; cbn [c_pc]; auto.
  - apply conn_step_G_conn; [assumption | split; assumption].
  - destruct (w_conns s c) as [r|] eqn:Hr; [|intros [= <-]; exact HG].
    destruct (c_pc r) eqn:Hpc; intros [= <-]; try exact HG; apply (set_conn_flag c r _ s HG Hr); cbn [c_pc]; auto.
  - destruct (w_conns s c) as [r|] eqn:Hr; intros [= <-]; [|exact HG]. apply (set_conn_flag c r _ s HG Hr); auto.
  - intros [= <-]. apply env_step_G_conn, HG.
  - intros [= <-]. exact HG.
Qed.

Lemma wrun_preserves cf (P : wstate -> Prop) :
  (forall s l s', P s -> wstep cf s l = Ok s' -> P s') -> forall ls s s', P s -> wrun cf s ls = Ok s' -> P s'.
Proof.
  intros Hstep. induction ls as [|l ls IH]; intros s s' HP; cbn [wrun].
  - intros [= <-]. exact HP.
  - destruct (wstep cf s l) as [s1| |] eqn:Hs; cbn [bind]; try discriminate. apply IH. exact (Hstep s l s1 HP Hs).
Qed.

Lemma run_INV cf ls : forall s s', cur cf -> INV s -> wrun cf s ls = Ok s' -> INV s'.
Proof. intros s s' Hcur. apply wrun_preserves. intros s0 l s1. apply step_INV. exact Hcur. Qed.

Theorem reachable_INV cf ls s : cur cf -> wrun cf init ls = Ok s -> INV s.
Proof. intros Hcur. apply run_INV; [exact Hcur|exact INV_init]. Qed.

Lemma NoDup_map_inj {A B} (f : A -> B) l x y : NoDup (map f l) -> In x l -> In y l -> f x = f y -> x = y.
Proof.
  induction l as [|a l IH]; intros Hn Hx Hy E; [destruct Hx|]. cbn [map] in Hn. inversion Hn as [|? ? Ha Hn']; subst.
  destruct Hx as [->|Hx], Hy as [->|Hy]; auto.
  - exfalso; apply Ha. rewrite E. apply in_map; exact Hy.
  - exfalso; apply Ha. rewrite <- E. apply in_map; exact Hx.
Qed.

(** Registered listener ids (and channels) are pairwise distinct in every reachable state of the
    current code; so [unregister_listener] of one connection never removes another's listener. *)
Theorem listener_ids_distinct : forall cf ls s,
  cur cf -> wrun cf init ls = Ok s ->
  NoDup (map l_id (w_listeners s)) /\ NoDup (map l_chan (w_listeners s)).
Proof.
  intros cf ls s Hcur Hrun. destruct (reachable_INV cf ls s Hcur Hrun) as [[HL _] _].
  split; [apply (lo_ids _ _ HL)|apply (lo_chans _ _ HL)].
Qed.

(** In EVERY execution of the current handler order (any interleaving of connection steps, other
    connections, task ends / cancels / closes / submits, journal acknowledgements; any number of
    them), for a connection [c] that submitted job [j] asking for its job events and has not been
    closed by its client: the handler is still serving the stream, its listener is still
    registered - under an id and a channel no other listener has -, and the number of
    [JobCompleted j] events emitted so far equals the number queued for [c] plus the number
    already written to the client; that number is at most one. *)
Theorem wait_gets_completion : forall cf ls s c r j,
  cur cf -> wrun cf init ls = Ok s ->
  w_conns s c = Some r -> c_job r = Some j -> c_closed r = false ->
  (exists i l, pc_lid (c_pc r) = Some i /\ In l (w_listeners s) /\ l_id l = i /\ l_chan l = c
               /\ fcheck (l_filter l) (WvCompleted j) = true
               /\ forall l', In l' (w_listeners s) -> l_id l' = i \/ l_chan l' = c -> l' = l)
  /\ cnt_e (w_log s) (WvCompleted j)
     = (cnt_e (c_queue r) (WvCompleted j) + cnt_m (c_sent r) (MEvent (WvCompleted j)))%nat
  /\ (cnt_e (w_log s) (WvCompleted j) <= 1)%nat.
Proof.
  intros cf ls s c r j Hcur Hrun Hr Hj Hcl.
  destruct (reachable_INV cf ls s Hcur Hrun) as [[HL HCs] HJ]. pose proof (HCs c r Hr) as HC.
  assert (Hlid : exists i, pc_lid (c_pc r) = Some i).
  { destruct (c_pc r) eqn:Hpc; cbn [pc_lid]; eauto; exfalso.
    - destruct (co_req _ _ _ _ HC) as (_ & _ & Hn); [rewrite Hpc; reflexivity|congruence].
    - destruct (co_req _ _ _ _ HC) as (_ & _ & Hn); [rewrite Hpc; reflexivity|congruence].
    - exact (co_nopre _ _ _ _ HC _ _ Hpc).
    - rewrite (co_done _ _ _ _ HC j Hj Hpc) in Hcl. discriminate. }
  destruct Hlid as [i Hi]. destruct (co_lst _ _ _ _ HC i Hi) as (l & Hl & Hlc & Hli & Hf).
  split; [|split; [apply (co_cnt _ _ _ _ HC j i Hj Hi)|apply (gj_once _ HJ)]].
  exists i, l. repeat split; auto. intros l' Hl' [E|E].
  - apply (NoDup_map_inj l_id _ l' l (lo_ids _ _ HL) Hl' Hl). congruence.
  - apply (NoDup_map_inj l_chan _ l' l (lo_chans _ _ HL) Hl' Hl). congruence.
Qed.

Lemma drain cf c : forall q s r i,
  w_conns s c = Some r -> c_pc r = PcStream i -> c_closed r = false -> c_queue r = q ->
  exists s' r', wrun cf s (repeat (LConn c) (length q)) = Ok s' /\ w_conns s' c = Some r'
                /\ c_sent r' = c_sent r ++ map MEvent q /\ c_closed r' = false /\ c_job r' = c_job r
                /\ c_pc r' = PcStream i /\ c_queue r' = [] /\ w_log s' = w_log s.
Proof.
  induction q as [|e q IH]; intros s r i Hr Hpc Hcl Hq.
  - exists s, r. cbn. rewrite app_nil_r. auto 10.
  - cbn [length repeat wrun wstep]. unfold conn_step. rewrite Hr, Hpc, Hcl, Hq. cbn [bind].
    edestruct (IH (set_conn c (mkC (PcStream i) false (c_flushed r) q (c_sent r ++ [MEvent e]) (c_job r)) s)) as (s' & r' & Hrun & Hr' & Hs' & Hc' & Hj' & Hp' & Hq' & Hl').
    + cbn [set_conn w_conns]. rewrite N.eqb_refl. reflexivity.
    + reflexivity.
    + reflexivity.
    + reflexivity.
    + exists s', r'. cbn [c_sent c_job] in *. rewrite Hrun. repeat split; auto.
      rewrite Hs', <- app_assoc. reflexivity.
Qed.

Lemma run_app cf a : forall s b, wrun cf s (a ++ b) = (do s1 <- wrun cf s a; wrun cf s1 b).
Proof.
  induction a as [|l a IH]; intros s b; cbn [app wrun bind]; [reflexivity|].
  destruct (wstep cf s l) as [s1| |]; cbn [bind]; auto.
Qed.

Lemma drain_told cf ls s c r i j :
  cur cf -> wrun cf init ls = Ok s ->
  w_conns s c = Some r -> c_pc r = PcStream i -> c_closed r = false -> c_job r = Some j ->
  exists s1 r1, wrun cf s (repeat (LConn c) (length (c_queue r))) = Ok s1 /\ w_conns s1 c = Some r1 /\
    c_pc r1 = PcStream i /\ c_closed r1 = false /\ c_queue r1 = [] /\ c_job r1 = Some j /\ w_log s1 = w_log s /\
    G_conn s1 /\ told r1 j = completed s j.
Proof.
  intros Hcur Hrun Hr Hpc Hcl Hj.
  destruct (drain cf c (c_queue r) s r i Hr Hpc Hcl eq_refl) as (s1 & r1 & Hrun1 & Hr1 & Hs1 & Hc1 & Hj1 & Hp1 & Hq1 & Hl1).
  assert (Hreach : wrun cf init (ls ++ repeat (LConn c) (length (c_queue r))) = Ok s1) by (rewrite run_app, Hrun; exact Hrun1).
  rewrite Hj in Hj1.
  destruct (wait_gets_completion cf _ s1 c r1 j Hcur Hreach Hr1 Hj1 Hc1) as (_ & Hcnt & _).
  rewrite Hq1 in Hcnt. cbn [count_occ] in Hcnt.
  exists s1, r1. repeat (split; [assumption|]). split; [exact (proj1 (reachable_INV cf _ s1 Hcur Hreach))|].
  unfold completed, told. rewrite <- Hl1.
  destruct (in_dec ev_eq_dec (WvCompleted j) (w_log s1)) as [Hin|Hnin];
    destruct (in_dec msg_eq_dec (MEvent (WvCompleted j)) (c_sent r1)) as [Hin2|Hnin2]; try reflexivity; exfalso.
  - apply (count_occ_In ev_eq_dec) in Hin. apply (count_occ_not_In msg_eq_dec) in Hnin2. lia.
  - apply (count_occ_not_In ev_eq_dec) in Hnin. apply (count_occ_In msg_eq_dec) in Hin2. lia.
Qed.

(** Progress: whenever the job has completed, steps of the journal thread and of connection [c]
    ALONE (no cooperation of anybody else is needed) make the handler write the completion to the
    client. *)
Theorem wait_delivery_progress : forall cf ls s c r j,
  cur cf -> wrun cf init ls = Ok s ->
  w_conns s c = Some r -> c_job r = Some j -> c_closed r = false -> In (WvCompleted j) (w_log s) ->
  exists ls' s' r',
    (forall l, In l ls' -> l = LFlushAck c \/ l = LConn c)
    /\ wrun cf s ls' = Ok s' /\ w_conns s' c = Some r' /\ told r' j = true.
Proof.
  intros cf ls s c r j Hcur Hrun Hr Hj Hcl Hin.
  assert (Hdone : completed s j = true) by (unfold completed; destruct (in_dec ev_eq_dec _ _); [reflexivity | contradiction]).
  destruct (wait_gets_completion cf ls s c r j Hcur Hrun Hr Hj Hcl) as ((i & l & Hi & _) & _).
  destruct (c_pc r) as [| |i0 m| |i0|] eqn:Hpc; try discriminate.
  - (* at the flush await: the acknowledgement and one run of the handler lead into the stream loop *)
    set (r1 := mkC (PcStream i0) (c_closed r) true (c_queue r) (c_sent r ++ [m]) (c_job r)).
    set (s1 := set_conn c r1 (set_conn c (mkC (PcFlushReg i0 m) (c_closed r) true (c_queue r) (c_sent r) (c_job r)) s)).
    assert (H2 : wrun cf s [LFlushAck c; LConn c] = Ok s1).
    { cbn [wrun wstep]. rewrite Hr, Hpc. cbn [bind]. unfold conn_step. cbn [set_conn w_conns]. rewrite N.eqb_refl.
      cbn [c_pc c_flushed bind]. unfold with_pc, send. cbn [c_pc c_closed c_flushed c_queue c_sent c_job]. reflexivity. }
    destruct (drain_told cf (ls ++ [LFlushAck c; LConn c]) s1 c r1 i0 j Hcur) as (s' & r' & Hrun' & Hr' & _ & _ & _ & _ & _ & _ & Ht);
      try reflexivity; [rewrite run_app, Hrun; exact H2 | cbn [s1 set_conn w_conns]; rewrite N.eqb_refl; reflexivity | exact Hcl | exact Hj |].
    exists ([LFlushAck c; LConn c] ++ repeat (LConn c) (length (c_queue r))), s', r'.
    split; [|split; [rewrite run_app, H2; exact Hrun' | split; [exact Hr' | rewrite Ht; exact Hdone]]].
    intros l0 Hl0. apply in_app_iff in Hl0. destruct Hl0 as [[<-|[<-|[]]]|H]; auto. apply repeat_spec in H. auto.
  - (* in the stream loop *)
    destruct (drain_told cf ls s c r i0 j Hcur Hrun Hr Hpc Hcl Hj) as (s' & r' & Hrun' & Hr' & _ & _ & _ & _ & _ & _ & Ht).
    exists (repeat (LConn c) (length (c_queue r))), s', r'.
    split; [|split; [exact Hrun' | split; [exact Hr' | rewrite Ht; exact Hdone]]].
    intros l0 H. apply repeat_spec in H. auto.
Qed.

(** ** The corner case: is the job already complete when the handler first yields?
    No.  [handle_submit] never calls [check_termination], and the current handler registers its
    listener in the same atomic run: at its first yield point the listener exists and no
    [JobCompleted] of the submitted job has been emitted yet - there is no window.  For a NEW job
    the response tells the client to wait iff the submit has at least one task: for an empty
    submit (a closed job without tasks - it is terminated at once and the server never emits
    [JobCompleted] for it, see [empty_job_never_completes]) the client does not enter its wait
    loop at all ([wait_for_jobs]: [unfinished_jobs] is empty; [wait_for_jobs_with_progress]:
    "There are no jobs to wait for"), so it does not hang either. *)
Theorem wait_gets_completion_closed_immediately : forall cf ls s c r target n flt s',
  cur cf -> wrun cf init ls = Ok s ->
  w_conns s c = Some r -> c_pc r = PcSubmitReq target n flt -> conn_step cf c s = Ok s' ->
  exists r', w_conns s' c = Some r'
    /\ (forall j, c_job r' = Some j ->
          ~ In (WvCompleted j) (w_log s') /\ c_queue r' = []
          /\ exists i l, pc_lid (c_pc r') = Some i /\ In l (w_listeners s') /\ l_id l = i /\ l_chan l = c)
    /\ (target = None -> f_jobs flt = None -> f_job_ev flt = true ->
          c_job r' = Some (w_next_job s)
          /\ let m := MResp (w_next_job s) (0 <? n) in
             (exists i, c_pc r' = PcFlushReg i m) \/ c_sent r' = [m]).
Proof.
  intros cf ls s c r target n flt s' Hcur Hrun Hr Hpc H.
  destruct (reachable_INV cf ls s Hcur Hrun) as [HG HJ]. destruct Hcur as [Hrf _].
  pose proof (proj1 (CONN_OK_pc _ _ _ _) (proj2 HG c r Hr)) as HC. rewrite Hpc in HC. destruct HC as (Hq & Hs & Hjb).
  destruct (do_submit target n s) as [[j s1]|] eqn:DS.
  - pose proof (do_submit_fresh _ _ _ _ _ HJ DS) as Hnin.
    destruct (submit_step _ _ _ _ _ _ _ _ _ _ Hrf Hr Hpc DS H) as (i & r' & _ & -> & _ & Ej & Eq & Hk).
    set (flt' := match f_jobs flt with None => _ | Some _ => flt end) in *.
    exists r'. split; [cbn [set_conn w_conns]; rewrite N.eqb_refl; reflexivity|]. split.
    + intros j0. rewrite Ej. destruct (fcheck flt' (WvCompleted j)); intros [= <-].
      split; [exact Hnin|]. split; [rewrite Eq; exact Hq|]. exists i, (mkL i flt' c).
      split; [destruct Hk as [[-> _]|[-> _]]; reflexivity|]. split; [apply in_app_iff; right; left; reflexivity | auto].
    + intros -> Hfj Hfe. cbn [do_submit] in DS. injection DS as Ej' Es1. subst j. rewrite Ej.
      assert (F : fcheck flt' (WvCompleted (w_next_job s)) = true).
      { unfold flt'. rewrite Hfj. unfold fcheck, job_sel. cbn [f_job_ev f_jobs existsb]. rewrite Hfe, N.eqb_refl. reflexivity. }
      assert (W : client_waits s1 (w_next_job s) = (0 <? n)).
      { subst s1. unfold client_waits. cbn [w_jobs]. rewrite N.eqb_refl. apply orb_false_r. }
      rewrite F. split; [reflexivity|]. cbv zeta. rewrite <- W.
      destruct Hk as [[-> _]|[_ ->]]; [left; eauto | right; rewrite Hs; reflexivity].
  - unfold conn_step in H. rewrite Hr, Hpc, DS in H. injection H as <-.
    eexists; split; [cbn [set_conn w_conns]; rewrite N.eqb_refl; reflexivity|].
    cbn [with_pc send c_job]. split.
    + intros j Hj. rewrite Hjb in Hj. discriminate.
    + intros -> _ _. cbn [do_submit] in DS. discriminate.
Qed.

Lemma register_panic cf flt c s site : register cf flt c s = Panic site -> site = site_lid_overflow.
Proof. unfold register. destruct (u32_max <? _); intros H; inversion H; reflexivity. Qed.

Lemma unregister_ok c r i s :
  G_conn s -> w_conns s c = Some r -> c_pc r = PcStream i -> exists s', unregister i s = Ok s'.
Proof.
  intros HG Hr Hpc. destruct (G_conn_stream _ _ _ _ HG Hr Hpc) as [(l & Hl & _ & Hli & _) _].
  destruct (remove_first_spec i _ l (lo_ids _ _ (proj1 HG)) Hl Hli) as (a & b & _ & Hrm). unfold unregister. rewrite Hrm. eauto.
Qed.

Lemma conn_step_panic cf c s site : G_conn s -> conn_step cf c s = Panic site -> site = site_lid_overflow.
Proof.
  intros HG. unfold conn_step. destruct (w_conns s c) as [r|] eqn:Hr; [|discriminate].
  (* whatever the handler does after [register] succeeds does not panic *)
  assert (Hreg : forall f s0 (k : lid * wstate -> res wstate), (forall x, k x <> Panic site) ->
            (do x <- register cf f c s0; k x) = Panic site -> site = site_lid_overflow).
  { intros f s0 k Hk. destruct (register cf f c s0) as [x| |] eqn:R; cbn [bind];
      [intros H; destruct (Hk x H) | discriminate | intros [= <-]; exact (register_panic _ _ _ _ _ R)]. }
  destruct (c_pc r) as [target n flt|flt|i m|flt m|i|] eqn:Hpc.
  - destruct (do_submit target n s) as [[j s1]|]; [|discriminate]. cbv zeta.
    destruct (cf_reg_first cf), (cf_journal cf); try discriminate; apply Hreg; intros [i s2]; discriminate.
  - apply Hreg. intros [i s2]. discriminate.
  - destruct (c_flushed r); discriminate.
  - destruct (c_flushed r); [|discriminate]. apply Hreg. intros [i s2]. discriminate.
  - destruct (unregister_ok c r i s HG Hr Hpc) as (s2 & Hun). rewrite Hun. cbn [bind].
    destruct (c_closed r); [discriminate|]. destruct (c_queue r); [|discriminate].
    destruct (sender_alive s c); discriminate.
  - discriminate.
Qed.

Lemma step_panic cf s l site : G_conn s -> wstep cf s l = Panic site -> site = site_lid_overflow.
Proof.
  intros HG. destruct l as [c rq|c|c|c|e|c]; cbn [wstep]; try discriminate.
  - destruct (w_conns s c); discriminate.
  - apply conn_step_panic; assumption.
  - destruct (w_conns s c) as [r|]; [|discriminate]. destruct (c_pc r); discriminate.
  - destruct (w_conns s c); discriminate.
Qed.

(** No execution of the current code reaches the [unwrap] in [unregister_listener]; the only
    panic of the modelled functions is the u32 overflow of the listener id (2^32 - 1 in use). *)
Theorem unregister_never_panics : forall cf ls site,
  cur cf -> wrun cf init ls = Panic site -> site = site_lid_overflow.
Proof.
  intros cf ls site Hcur. generalize INV_init. generalize init.
  induction ls as [|l ls IH]; intros s HI; cbn [wrun]; [discriminate|].
  destruct (wstep cf s l) as [s1| |] eqn:Hs; cbn [bind]; try discriminate.
  - apply IH. apply (step_INV cf s l s1); assumption.
  - intros [= <-]. exact (step_panic cf s l _ (proj1 HI) Hs).
Qed.

Definition wf : efilter := wait_filter false.

(** F13: the order before commit 74067fa.  The job completes while the handler awaits the journal
    flush; the listener is registered afterwards: the completion is never queued for the client,
    which was told to wait - and the handler is blocked in [select!] with an empty queue. *)
Definition f13_labels : list wlabel :=
  [LRequest 0 (RqSubmitWait None 1 wf); LConn 0; LEnv (ETaskEnd 1 1); LFlushAck 0; LConn 0; LConn 0; LConn 0].

Theorem prefix_order_refuted :
  exists ls s r, wrun cfg_prefix init ls = Ok s /\ w_conns s 0 = Some r
    /\ c_job r = Some 1 /\ c_closed r = false /\ c_pc r = PcStream 1
    /\ In (WvCompleted 1) (w_log s) /\ c_queue r = [] /\ c_sent r = [MResp 1 true]
    /\ cnt_e (w_log s) (WvCompleted 1)
       <> (cnt_e (c_queue r) (WvCompleted 1%N) + cnt_m (c_sent r) (MEvent (WvCompleted 1%N)))%nat.
Proof.
  exists f13_labels. eexists. eexists. split; [vm_compute; reflexivity|].
  split; [vm_compute; reflexivity|]. vm_compute. repeat split; auto. discriminate.
Qed.

(** the same labels on the current code: delivered *)
Example f13_labels_current_ok :
  match wrun cfg_cur init f13_labels with
  | Ok s => match w_conns s 0 with Some r => c_sent r = [MResp 1 true; MEvent (WvCompleted 1)] | None => False end
  | _ => False end.
Proof. vm_compute. reflexivity. Qed.

(** Seeded change m13: new id = number of listeners + 1.  Two listeners get id 2; the
    [unregister_listener] of connection 2 removes the listener of the waiting connection 1. *)
Definition f99 : efilter := mkF (Some [99]) true false false.
Definition m13_prefix : list wlabel :=
  [LRequest 0 (RqStream wf); LConn 0; LRequest 1 (RqSubmitWait None 1 wf); LConn 1; LClose 0; LConn 0;
   LRequest 2 (RqStream f99); LConn 2].
Definition m13_labels : list wlabel :=
  m13_prefix ++ [LClose 2; LConn 2; LEnv (ETaskEnd 1 1); LFlushAck 1; LConn 1; LConn 1; LConn 1].

(** with a third client whose filter accepts the event, its stale listener (receiver gone) is
    dropped by [retain] in [send_event], and connection 1's own [unregister_listener] then
    panics the server *)
Definition m13_panic_labels : list wlabel :=
  [LRequest 0 (RqStream wf); LConn 0; LRequest 1 (RqSubmitWait None 1 wf); LConn 1; LClose 0; LConn 0;
   LRequest 2 (RqStream wf); LConn 2; LClose 2; LConn 2; LEnv (ETaskEnd 1 1); LFlushAck 1; LConn 1; LConn 1].

Theorem len_plus_one_refuted :
  (exists s, wrun cfg_len init m13_prefix = Ok s /\ map l_id (w_listeners s) = [2; 2])
  /\ (exists s r, wrun cfg_len init m13_labels = Ok s /\ w_conns s 1 = Some r
        /\ c_job r = Some 1 /\ c_closed r = false /\ In (WvCompleted 1) (w_log s)
        /\ c_sent r = [MResp 1 true] /\ c_pc r = PcDone)
  /\ wrun cfg_len init m13_panic_labels = Panic site_unregister_unwrap.
Proof.
  split; [|split].
  - eexists. split; vm_compute; reflexivity.
  - eexists. eexists. split; [vm_compute; reflexivity|]. split; [vm_compute; reflexivity|].
    vm_compute. repeat split; auto.
  - vm_compute. reflexivity.
Qed.

Example m13_labels_current_ok :
  match wrun cfg_cur init m13_labels with
  | Ok s => match w_conns s 1 with Some r => c_sent r = [MResp 1 true; MEvent (WvCompleted 1)] | None => False end
  | _ => False end.
Proof. vm_compute. reflexivity. Qed.

(** A non-trivial execution of the current code: two waiting connections (the second with
    --progress: task events too); job 1 completes while connection 0 still awaits its journal
    flush, job 2 is cancelled after one task has finished.  Both clients get their completion,
    after their submit response. *)
Definition two_waiters : list wlabel :=
  [LRequest 0 (RqSubmitWait None 1 wf); LConn 0;
   LRequest 1 (RqSubmitWait None 2 (wait_filter true)); LConn 1;
   LEnv (ETaskEnd 1 1); LEnv (ETaskEnd 2 1); LFlushAck 1; LConn 1; LConn 1; LEnv (ECancel 2 1);
   LFlushAck 0; LConn 0; LConn 0; LConn 1; LConn 1; LConn 1; LConn 1].

Example two_waiters_ok :
  match wrun cfg_cur init two_waiters with
  | Ok s => match w_conns s 0, w_conns s 1 with
            | Some r0, Some r1 =>
                c_job r0 = Some 1 /\ c_closed r0 = false /\ c_job r1 = Some 2 /\ c_closed r1 = false
                /\ c_sent r0 = [MResp 1 true; MEvent (WvCompleted 1)]
                /\ c_sent r1 = [MResp 2 true; MEvent (WvTask 2); MEvent (WvCancel 2); MEvent (WvTask 2); MEvent (WvCompleted 2)]
                /\ map l_id (w_listeners s) = [1; 2]
            | _, _ => False end
  | _ => False end.
Proof. vm_compute. repeat split; reflexivity. Qed.

(** the harness-style replay of the same scenario *)
Example wait_trace_ok_example :
  wait_trace_ok [LRequest 0 (RqSubmitWait None 1 wf); LRequest 1 (RqSubmitWait None 2 wf);
                 LEnv (ETaskEnd 1 1); LEnv (ETaskEnd 2 1); LFlushAck 1; LFlushAck 0;
                 LObserve 0; LClose 0; LObserve 1; LClose 1]
                [(1, true, true); (2, false, false)] = true.
Proof. vm_compute. reflexivity. Qed.

Definition SIL (j : jobid) (s : wstate) : Prop :=
  ~ In (WvCompleted j) (w_log s) /\ j < w_next_job s
  /\ (w_jobs s j = None \/ w_jobs s j = Some (mkJ false 0)).

Lemma forward_SIL j e s : e <> WvCompleted j -> SIL j s -> SIL j (forward e s).
Proof.
  intros Hne (Hn & Hlt & Hj). split; [|split; [exact Hlt|exact Hj]].
  cbn [forward w_log]. apply not_in_snoc_other; auto.
Qed.

Lemma check_termination_SIL j j' s : j' <> j -> SIL j s -> SIL j (wcheck_termination j' s).
Proof.
  intros Hne HS. unfold wcheck_termination. destruct (w_jobs s j') as [jr|]; [|exact HS].
  destruct (jr_active jr =? 0); [|exact HS]. destruct (jr_open jr); apply forward_SIL; auto; congruence.
Qed.

Lemma set_job_SIL j j' jr s : j' <> j -> SIL j s -> SIL j (wset_job j' jr s).
Proof.
  intros Hne (Hn & Hlt & Hj). split; [exact Hn|split; [exact Hlt|]]. cbn [wset_job w_jobs].
  destruct (j =? j') eqn:E; [apply N.eqb_eq in E; congruence|exact Hj].
Qed.

Lemma new_job_SIL j jr s1 : SIL j s1 -> SIL j (new_job jr s1).
Proof.
  intros (Hn & Hlt & Hj). split; [exact Hn|]. cbn [new_job w_jobs w_next_job]. split; [lia|].
  destruct (j =? w_next_job s1) eqn:E; [apply N.eqb_eq in E; lia|exact Hj].
Qed.

Lemma shape_SIL j0 s s' : env_shape s s' -> SIL j0 s -> SIL j0 s'.
Proof.
  intros H HS.
  (* the environment only changes jobs that are not terminated, and [j0] is *)
  assert (Hdead : forall jr, w_jobs s j0 = Some jr -> ~ live jr).
  { intros jr Hj Hl. destruct HS as (_ & _ & [E|E]); rewrite E in Hj; [discriminate|]. injection Hj as <-.
    destruct Hl as [Hl|Hl]; [cbn [jr_active] in Hl; lia | discriminate]. }
  destruct H as [|j jr0 jr es Hj Hl Hes|jr e He|j jr0 jr Hj Ho|j|e He].
  - exact HS.
  - assert (Hne : j <> j0) by (intros ->; exact (Hdead _ Hj Hl)).
    apply check_termination_SIL; [exact Hne|]. induction Hes as [|e es He _ IH]; cbn [fold_right];
      [apply set_job_SIL; assumption | apply forward_SIL; [apply He | exact IH]].
  - apply new_job_SIL, forward_SIL; [apply He | exact HS].
  - assert (Hne : j <> j0) by (intros ->; apply (Hdead _ Hj); right; exact Ho).
    apply set_job_SIL; [exact Hne|]. apply forward_SIL; [discriminate | exact HS].
  - destruct HS as (Hn & Hlt & Hj). split; [exact Hn|split; [exact Hlt|]]. cbn [wset_job w_jobs].
    destruct (j0 =? j); [left; reflexivity|exact Hj].
  - apply forward_SIL; [apply He | exact HS].
Qed.

Lemma env_step_SIL j e s : SIL j s -> SIL j (env_step e s).
Proof. exact (shape_SIL j _ _ (env_step_shape e s)). Qed.

Lemma SIL_ext j s s' : same_jobs s s' -> SIL j s -> SIL j s'.
Proof. unfold SIL. intros (-> & -> & ->). auto. Qed.

Lemma step_SIL cf j s l s' : SIL j s -> wstep cf s l = Ok s' -> SIL j s'.
Proof. apply step_job_side; [apply env_step_SIL | apply SIL_ext]. Qed.

Lemma run_SIL cf j ls : forall s s', SIL j s -> wrun cf s ls = Ok s' -> SIL j s'.
Proof. apply wrun_preserves. intros s l s'. apply step_SIL. Qed.

(** A submit without tasks that creates a new job: the job is closed and has no active task from
    the start; whatever happens afterwards, [JobCompleted] is never emitted for it.  (The client
    does not wait for it: [wait_gets_completion_closed_immediately].) *)
Theorem empty_job_never_completes : forall cf ls s c r flt s' ls' s'',
  cur cf -> wrun cf init ls = Ok s ->
  w_conns s c = Some r -> c_pc r = PcSubmitReq None 0 flt -> conn_step cf c s = Ok s' ->
  wrun cf s' ls' = Ok s'' -> ~ In (WvCompleted (w_next_job s)) (w_log s'').
Proof.
  intros cf ls s c r flt s' ls' s'' Hcur Hrun Hr Hpc Hstep Hrun'.
  destruct (reachable_INV cf ls s Hcur Hrun) as [_ HJ].
  pose proof (conn_step_jobs _ _ _ _ Hstep) as (E1 & E2 & E3). rewrite Hr, Hpc in E1, E2, E3.
  apply (run_SIL cf _ ls' s' s''); [|exact Hrun']. split; [|split].
  - rewrite E3. cbn [env_step do_submit w_log forward]. apply not_in_snoc_other; [|discriminate].
    intros Hin. destruct (gj_done _ HJ _ Hin) as [Hlt _]. lia.
  - rewrite E2. cbn [env_step do_submit w_next_job]. lia.
  - right. rewrite E1. cbn [env_step do_submit w_jobs]. rewrite N.eqb_refl. reflexivity.
Qed.

Lemma settle_is_run cf cs : forall s s', settle cf cs s = Ok s' ->
  exists ls', wrun cf s ls' = Ok s' /\ forall l, In l ls' -> exists c, l = LConn c.
Proof.
  induction cs as [|c cs IH]; intros s s'; cbn [settle].
  - intros H; inversion H; subst. exists []. split; [reflexivity|intros l []].
  - unfold settle_conn at 1. set (fuel := match w_conns s c with Some r => _ | None => O end).
    destruct (wrun cf s (repeat (LConn c) fuel)) as [s1| |] eqn:R; cbn [bind]; try discriminate.
    intros H. destruct (IH s1 s' H) as (ls2 & Hrun2 & Hall).
    exists (repeat (LConn c) fuel ++ ls2). split.
    + rewrite run_app, R. exact Hrun2.
    + intros l Hl. apply in_app_iff in Hl. destruct Hl as [Hl|Hl]; [apply repeat_spec in Hl; eauto|auto].
Qed.

Lemma idle_step cf c s r i :
  G_conn s -> w_conns s c = Some r -> c_pc r = PcStream i -> c_closed r = false -> c_queue r = [] ->
  conn_step cf c s = Ok s.
Proof.
  intros HG Hr Hpc Hcl Hq. unfold conn_step. rewrite Hr, Hpc, Hcl, Hq.
  rewrite (listens_alive _ _ _ _ (proj1 (G_conn_stream _ _ _ _ HG Hr Hpc))). reflexivity.
Qed.

(** At a check of a waiting connection whose handler is in its stream loop (in the harness: any
    [WAITCHECK] - it is enabled only after [FLUSHDONE] delivered the response): after the executor
    has run the connection to quiescence the client HAS BEEN TOLD IFF THE JOB HAS COMPLETED.  This
    is the specification line the driver prints ("delivered = completed"), as a theorem about the
    model of the code, in every reachable state. *)
Theorem wait_check_spec : forall cf ls s c r i j,
  cur cf -> wrun cf init ls = Ok s ->
  w_conns s c = Some r -> c_pc r = PcStream i -> c_closed r = false -> c_job r = Some j ->
  exists s', settle_conn cf c s = Ok s' /\ observe s' c = Some (j, completed s j, completed s j).
Proof.
  intros cf ls s c r i j Hcur Hrun Hr Hpc Hcl Hj.
  destruct (drain_told cf ls s c r i j Hcur Hrun Hr Hpc Hcl Hj) as (s1 & r1 & Hrun1 & Hr1 & Hp1 & Hc1 & Hq1 & Hj1 & Hl1 & HG1 & Ht).
  pose proof (idle_step cf c s1 r1 i HG1 Hr1 Hp1 Hc1 Hq1) as Hidle.
  exists s1. split.
  - unfold settle_conn. rewrite Hr.
    replace (S (S (S (length (c_queue r))))) with (length (c_queue r) + 3)%nat by lia.
    rewrite repeat_app, run_app, Hrun1. cbn [bind repeat wrun wstep]. rewrite Hidle. cbn [bind]. rewrite Hidle. cbn [bind]. rewrite Hidle. reflexivity.
  - unfold observe. rewrite Hr1, Hj1, Ht. unfold completed. rewrite Hl1. reflexivity.
Qed.
