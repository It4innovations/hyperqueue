(** C14 / C03, "tasks are aborted only with a cause": every operation, every
    history, the theorems.

    [step_SF]: the facts about one operation from a state with the proved invariants ([INV]):
    the clean form [AC] of its outputs; a step that aborts a task answers no submit; how the jobs'
    failure counters move; the monitor's dependency entries keep covering the dependency lists of
    the core ([KD]); the driver's table of known ids keeps describing the jobs ([KNOK]).
    [run_ispec]: along every history the item list satisfies the clean form [ispec] w.r.t. the
    monitor's accumulators, hence ([aj_sound]) the monitor accepts it.

    [limits_of reserve maxfill ops]: the failure limits the monitor is run with, collected as the
    driver does from the job-layer snapshot after every operation - the pairs (job id, m) of the
    jobs with [j_maxfails = Some m].  A job keeps its limit, and a job id is never used twice, so
    the list is functional ([LI]).

    [abort_justified_run]: for EVERY history of the system model (hypotheses [op_wf], [ops_ok] as
    for all invariants of the development) the executable monitor [Monitors.abort_justified],
    started as the driver starts it, accepts the item list [run_items' []] - the events, and one
    [ISubmitted] per accepted submit built exactly as the driver builds it.
    [step_abort_cause] / [history_abort_cause]: the clean Prop forms behind it.
    (For the item list of DepOrderJournal.v, [run_items], the statement is false:
    AbortCauseRefute.v.) *)
From HQ Require Import Base.Prelude Cluster.Types Cluster.Core Cluster.Reactor Cluster.Worker Cluster.Server Cluster.Sys Cluster.Monitors Cluster.ProofsJob Cluster.ProofsMore Cluster.ProofsTerminal Cluster.ProofsStep Cluster.ProofsFinal Cluster.BijBase Cluster.BijFinal Cluster.ProofsOnce Cluster.RejHyp Cluster.InvQStep Cluster.InvDSpec Cluster.InvBundle Cluster.StartFin2 Cluster.NoPanicU0 Cluster.NoFresh Cluster.DepOrderBase Cluster.DepOrderRun Cluster.DepOrderJournal Cluster.AbortCauseBase Cluster.AbortCauseJob Cluster.AbortCauseStep Cluster.AbortCauseItems Cluster.AbortCauseRefute Cluster.BijCore Cluster.BijHq Cluster.BijSt Cluster.BijReact Cluster.StartFinBase Cluster.InvDBase Cluster.InvDRem Cluster.InvDReact Cluster.InvDStep Cluster.InvAll Cluster.DepOrderReact Cluster.DepOrderStep.
From HQ Require Import Cluster.ModelFacts.
From Coq Require Import ZArith Lia.
Local Open Scope N_scope.
Arguments N.add : simpl never.
Arguments N.sub : simpl never.

(** The driver's table describes the jobs of the state. *)
Definition KNOK (kn : list (N * list N)) (s : sys) : Prop :=
  (forall k j, find_job (h_jobs (s_hq s)) k = Some j -> forall i, n_mem i (kn_get kn k) = true <-> jt_find (j_tasks j) i <> None)
  /\ (forall k, h_counter (s_hq s) <= k -> kn_get kn k = []).

Record SF (kn : list (N * list N)) (s : sys) (o : op) (s' : sys) (outs : list out) : Prop := mkSF {
  sf_ac : AC (s, []) outs;
  sf_ns : terminal_ids outs = [] \/ NS outs;
  sf_jobs : forall k j', find_job (h_jobs (s_hq s')) k = Some j' ->
      (exists j, find_job (h_jobs (s_hq s)) k = Some j /\ j_maxfails j' = j_maxfails j /\ j_nfail j' = j_nfail j + onfailed k outs)
      \/ (h_counter (s_hq s) <= k /\ j_nfail j' = 0);
  sf_cnt : h_counter (s_hq s) <= h_counter (s_hq s');
  sf_fail : forall k, onfailed k outs <> 0 -> find_job (h_jobs (s_hq s)) k <> None;
  sf_kd : KNOK kn s -> forall D, KD s D -> KD s' (jdeps D (items_of_stepK (kn_get kn) o outs));
  sf_kn : KNOK kn s -> KNOK (kn_upd kn outs) s'
}.

Lemma kn_upd_NS outs : NS outs -> forall kn, kn_upd kn outs = kn.
Proof.
  unfold kn_upd. induction outs as [|x r IH]; intros Hn kn; [reflexivity|].
  unfold NS in Hn. cbn [forallb] in Hn. apply andb_true_iff in Hn. destruct Hn as [H1 H2]. cbn [fold_left].
  destruct x as [e|l|rs| | | |]; cbn [kn_upd1]; try (apply IH; exact H2).
  destruct rs; try (apply IH; exact H2). discriminate.
Qed.

Lemma AC_quiet s ext : terminal_ids ext = [] -> AC s ext.
Proof.
  intros Hq pre ts post x E Hx. exfalso.
  assert (Hin : In x (terminal_ids ext)).
  { rewrite E, terminal_ids_app, tids_cons. apply in_app_iff. right. apply in_app_iff. left. exact Hx. }
  rewrite Hq in Hin. destruct Hin.
Qed.

Lemma onfailed_quiet k ext : terminal_ids ext = [] -> onfailed k ext = 0.
Proof.
  induction ext as [|o r IH]; intros H; [reflexivity|]. destruct (terminal_ids_nil_cons _ _ H) as [H1 H2].
  cbn [onfailed]. rewrite (IH H2). destruct o as [e| | | | | |]; try reflexivity. destruct e; try reflexivity. discriminate.
Qed.

Lemma SF_plain kn s o s' outs : PLAIN s s' outs -> SF kn s o s' outs.
Proof.
  intros [J C S]. constructor.
  - exact C.
  - right. exact (je_ns _ _ _ J).
  - intros k j' H. left. destruct (je_old _ _ _ J k j' H) as (j & A & B & _ & D). exists j. split; [exact A|]. split; [exact B | exact D].
  - pose proof (je_cnt _ _ _ J) as E. unfold cnt_of, hq_of in E. cbn [fst] in E. rewrite E. lia.
  - exact (je_fail _ _ _ J).
  - intros _ D HD. rewrite (items_NS _ _ _ (je_ns _ _ _ J)). eapply KD_dsub; eassumption.
  - intros [K1 K2]. rewrite (kn_upd_NS _ (je_ns _ _ _ J)). split.
    + intros k j' H i. destruct (je_old _ _ _ J k j' H) as (j & A & _ & Sm & _). rewrite (K1 _ _ A i).
      specialize (Sm i). split; intros X Y; apply X; apply Sm; exact Y.
    + intros k Hk. apply K2. pose proof (je_cnt _ _ _ J) as E. unfold cnt_of, hq_of in E. cbn [fst] in E. rewrite <- E. exact Hk.
Qed.

Lemma SF_reject kn s o s' outs : REJECT s s' outs -> SF kn s o s' outs.
Proof.
  intros [Eh Et (a & b & ->)]. constructor.
  - apply AC_NA. reflexivity.
  - right. reflexivity.
  - intros k j' H. rewrite Eh in H. left. exists j'. split; [exact H|]. split; [reflexivity|]. cbn [onfailed ofailed1]. lia.
  - rewrite Eh. lia.
  - intros k H. exfalso. apply H. reflexivity.
  - intros _ D HD. unfold items_of_stepK. cbn [flat_map item_of_outK app jdeps]. eapply KD_dsub; [apply dsub_tasks; exact Et | exact HD].
  - intros [K1 K2]. unfold kn_upd. cbn [fold_left kn_upd1].
    split; [intros k j H; rewrite Eh in H; exact (K1 _ _ H) | intros k Hk; rewrite Eh in Hk; exact (K2 _ Hk)].
Qed.

Lemma kn_get_cons j ids kn k : kn_get ((j, ids) :: kn) k = if N.eqb j k then ids else kn_get kn k.
Proof. unfold kn_get. cbn [find fst]. destruct (N.eqb j k); reflexivity. Qed.

Lemma SF_accept kn s o jid ids tasks s' outs :
  fresh (s, []) -> ACCEPT s jid ids tasks s' outs ->
  (KNOK kn s -> forall D, KD s D -> KD s' (jdeps D (items_of_stepK (kn_get kn) o outs))) ->
  SF kn s o s' outs.
Proof.
  intros F (j & j' & ev & n & A) Hkd.
  pose proof (ac_outs _ _ _ _ _ _ _ _ _ _ A) as Eo. pose proof (ac_evq _ _ _ _ _ _ _ _ _ _ A) as Hev.
  destruct ev; try destruct Hev.
  assert (Hq : terminal_ids outs = []) by (rewrite Eo; reflexivity).
  destruct (attach_ids_facts _ _ _ (ac_attach _ _ _ _ _ _ _ _ _ _ A)) as (_ & _ & Am & An & _).
  constructor.
  - apply AC_quiet. exact Hq.
  - left. exact Hq.
  - intros k jk H. rewrite (onfailed_quiet _ _ Hq). destruct (N.eq_dec k jid) as [->|Hne].
    + rewrite (ac_new _ _ _ _ _ _ _ _ _ _ A) in H. inversion H; subst jk.
      destruct (ac_src _ _ _ _ _ _ _ _ _ _ A) as [Hs|(Hc & _ & Hn & _)].
      * left. exists j. split; [exact Hs|]. split; [exact Am | lia].
      * right. split; [lia | congruence].
    + rewrite (ac_other _ _ _ _ _ _ _ _ _ _ A _ Hne) in H. left. exists jk. split; [exact H|]. split; [reflexivity | lia].
  - exact (ac_cnt _ _ _ _ _ _ _ _ _ _ A).
  - intros k H. exfalso. apply H. apply onfailed_quiet. exact Hq.
  - exact Hkd.
  - intros [K1 K2]. rewrite Eo. unfold kn_upd. cbn [fold_left kn_upd1].
    assert (Hlt : jid < h_counter (s_hq s')).
    { destruct (ac_src _ _ _ _ _ _ _ _ _ _ A) as [Hs|(Hc & _ & _ & Hlt)]; [|lia].
      pose proof (F _ (find_job_in _ _ _ Hs)) as Hl. rewrite (find_job_id _ _ _ Hs) in Hl. unfold cnt_of, hq_of in Hl. cbn [fst] in Hl.
      pose proof (ac_cnt _ _ _ _ _ _ _ _ _ _ A). lia. }
    split.
    + intros k jk H i. rewrite kn_get_cons. destruct (N.eqb jid k) eqn:E.
      * apply N.eqb_eq in E. subst k. rewrite (ac_new _ _ _ _ _ _ _ _ _ _ A) in H. inversion H; subst jk.
        rewrite n_mem_In, jt_find_dom. tauto.
      * apply N.eqb_neq in E. rewrite (ac_other _ _ _ _ _ _ _ _ _ _ A k) in H by congruence. apply K1. exact H.
    + intros k Hk. rewrite kn_get_cons. destruct (N.eqb jid k) eqn:E; [apply N.eqb_eq in E; lia|].
      apply K2. pose proof (ac_cnt _ _ _ _ _ _ _ _ _ _ A). lia.
Qed.

Lemma SF_open kn s mf s' outs : handle_open (s, []) mf = Ok (s', outs) -> SF kn s (OpOpen mf) s' outs.
Proof.
  intros H. destruct (handle_open_jobs _ _ _ _ H) as (Hj & Hc & Hco & Eo). cbv zeta in Hj, Hc, Eo. subst outs.
  constructor.
  - apply AC_NA. reflexivity.
  - left. reflexivity.
  - intros k j' Hk. rewrite Hj in Hk. destruct (N.eqb k (h_counter (s_hq s))) eqn:E.
    + apply N.eqb_eq in E. inversion Hk; subst. right. split; [lia | reflexivity].
    + left. exists j'. split; [exact Hk|]. split; [reflexivity|]. cbn [onfailed ofailed1]. lia.
  - rewrite Hc. lia.
  - intros k Hk. exfalso. apply Hk. reflexivity.
  - intros _ D HD. unfold items_of_stepK. cbn [flat_map item_of_outK app jdeps].
    eapply KD_dsub; [apply dsub_tasks; rewrite Hco; reflexivity | exact HD].
  - intros [K1 K2]. unfold kn_upd. cbn [fold_left kn_upd1]. split.
    + intros k j' Hk i. rewrite Hj in Hk. destruct (N.eqb k (h_counter (s_hq s))) eqn:E.
      * apply N.eqb_eq in E. inversion Hk; subst. rewrite (K2 (h_counter (s_hq s))) by lia. cbn [n_mem j_tasks jt_find].
        split; [discriminate | intros X; exfalso; apply X; reflexivity].
      * apply K1. exact Hk.
    + intros k Hk. apply K2. lia.
Qed.

Theorem step_SF kn s o s' outs : INV s -> op_wf o -> step s o = Ok (s', outs) -> SF kn s o s' outs.
Proof.
  intros HI Hwf H. destruct (is_creating o) eqn:Ec; [|apply SF_plain; eapply step_plain; eassumption].
  assert (P : PRE (s, [])) by (split; [exact (inv_d _ HI) | exact (inv_dj _ HI)]).
  pose proof (inv_fresh _ HI) as F. pose proof (inv_cb _ HI) as HC.
  destruct o; try discriminate Ec; cbn [step] in H.
  - (* array submit *)
    destruct (bad_submit_lengths _ _); [inversion H; subst; apply SF_reject; constructor; [reflexivity | reflexivity | eauto]|].
    assert (Hwf' : match entries with Some n => (length ids <= N.to_nat n)%nat | None => True end) by (destruct entries; exact Hwf).
    destruct (submit_array_AR s _ _ _ _ _ _ _ _ _ _ F P Hwf' H) as [R|(jid & ids' & tasks & A & Ht)]; [apply SF_reject; exact R|].
    eapply SF_accept; [exact F | exact A|]. intros [K1 K2] D HD.
    eapply (KD_accept_array (kn_get kn) s _ jid ids' tasks s' outs D); [exact I | exact F | exact HC | exact A | exact Ht | | exact HD].
    intros j0 j0' ev n A0 i. destruct (ac_src _ _ _ _ _ _ _ _ _ _ A0) as [Hs|(Hc & Hnil & _)].
    + apply K1. exact Hs.
    + rewrite (K2 jid) by lia. rewrite Hnil. cbn [n_mem jt_find]. split; [discriminate | intros X; exfalso; apply X; reflexivity].
  - (* task-graph submit *)
    destruct (bad_graph_rq _ _); [inversion H; subst; apply SF_reject; constructor; [reflexivity | reflexivity | eauto]|]. destruct (dead_dep _ _ _); [inversion H; subst; apply SF_reject; constructor; [reflexivity | reflexivity | eauto]|].
    destruct (submit_graph_AR s _ _ _ _ _ _ F P H) as [R|(jid & tasks & A & Ht)]; [apply SF_reject; exact R|].
    eapply SF_accept; [exact F | exact A|]. intros _ D HD.
    eapply KD_accept_graph; [exact F | exact HC | exact A | exact Ht | exact HD].
  - (* open *)
    apply SF_open. exact H.
Qed.

Definition FC (s : sys) (F : list (N * N)) : Prop :=
  forall k j, find_job (h_jobs (s_hq s)) k = Some j -> fcount F k = j_nfail j.
Definition FK (s : sys) (F : list (N * N)) : Prop := forall k, h_counter (s_hq s) <= k -> fcount F k = 0.
(** [L] knows the failure limit of every job of the state. *)
Definition LIMOK (L : list (N * N)) (s : sys) : Prop :=
  forall k j m, find_job (h_jobs (s_hq s)) k = Some j -> j_maxfails j = Some m -> lget L k = Some m.

Lemma run_ispec L ops : forall kn s D F s' items,
  along INV s ops -> along (LIMOK L) s ops -> Forall op_wf ops ->
  KNOK kn s -> KD s D -> FC s F -> FK s F ->
  run_items' kn s ops = Ok (s', items) -> ispec L D F items.
Proof.
  induction ops as [|o r IH]; cbn [run_items']; intros kn s D F s' items Hal Hlim Hwf HK HD HFC HFK H.
  - inversion H; subst. intros pre ts post E. destruct pre; discriminate.
  - apply bind_ok in H. destruct H as ([s1 o1] & H1 & H). apply bind_ok in H. destruct H as ([s2 i2] & H2 & H). inversion H; subst s' items. clear H.
    inversion Hwf as [|? ? Hw1 Hw2]; subst. cbn [along] in Hal, Hlim. destruct Hal as [HI Hal]. destruct Hlim as [HL Hlim]. rewrite H1 in Hal, Hlim.
    pose proof (step_SF kn _ _ _ _ HI Hw1 H1) as SFx.
    set (i1 := items_of_stepK (kn_get kn) o o1) in *.
    pose proof (inv_fresh _ HI) as Fr.
    assert (Hnof : forall k, h_counter (s_hq s) <= k -> onfailed k o1 = 0).
    { intros k Hk. destruct (N.eq_dec (onfailed k o1) 0) as [Z|NZ]; [exact Z|]. exfalso.
      pose proof (sf_fail _ _ _ _ _ SFx k NZ) as Hex. destruct (find_job (h_jobs (s_hq s)) k) as [jk|] eqn:Ek; [|congruence].
      pose proof (Fr _ (find_job_in _ _ _ Ek)) as Hlt. rewrite (find_job_id _ _ _ Ek) in Hlt. unfold cnt_of, hq_of in Hlt. cbn [fst] in Hlt. lia. }
    intros ipre ts ipost E t Ht. destruct (app_decomp _ _ _ _ _ E) as [(m & Em & Ep)|(m & Em & Ep)].
    + (* the abort is an event of this step *)
      destruct (flat_map_decomp _ _ (item_single (kn_get kn) o) _ _ _ Em) as (pre & x & post & Eo & Ex & Epre & Epost).
      apply item_ev in Ex. subst x.
      assert (Hns : NS pre).
      { destruct (sf_ns _ _ _ _ _ SFx) as [Hq|Hn]; [|rewrite Eo in Hn; exact (NS_app_l _ _ Hn)].
        exfalso. assert (Hin : In t (terminal_ids o1)).
        { rewrite Eo, terminal_ids_app, tids_cons. apply in_app_iff. right. apply in_app_iff. left. exact Ht. }
        rewrite Hq in Hin. destruct Hin. }
      destruct (sf_ac _ _ _ _ _ SFx pre ts post t Eo Ht) as [(tx & d & A & B & C)|(j & mf & A & B & C)].
      * left. destruct (HD _ _ A) as (ds & Hf & Hi). exists ds, d. split; [|split; [apply Hi; exact B|]].
        -- rewrite <- Epre. fold (items_of_stepK (kn_get kn) o pre). rewrite (items_NS _ _ _ Hns). exact Hf.
        -- destruct C as [C|(k & post' & ->)]; [left; exact C|]. right.
           exists k, (items_of_stepK (kn_get kn) o post' ++ i2). rewrite Ep, <- Epost. reflexivity.
      * right. exists mf. split; [exact (HL _ _ _ A B)|].
        rewrite fcount_afails, <- Epre. fold (items_of_stepK (kn_get kn) o pre). rewrite infailed_items, (HFC _ _ A). exact C.
    + (* later *)
      subst ipre. rewrite jdeps_app, afails_app.
      refine (IH (kn_upd kn o1) s1 (jdeps D i1) (afails F i1) s2 i2 Hal Hlim Hw2 _ _ _ _ H2 m ts ipost Ep t Ht).
      * exact (sf_kn _ _ _ _ _ SFx HK).
      * exact (sf_kd _ _ _ _ _ SFx HK D HD).
      * intros k j' Hj'. rewrite fcount_afails. unfold i1. rewrite infailed_items.
        destruct (sf_jobs _ _ _ _ _ SFx k j' Hj') as [(j & A & _ & B)|[A B]].
        -- rewrite (HFC _ _ A). lia.
        -- rewrite (HFK _ A), (Hnof _ A). lia.
      * intros k Hk. rewrite fcount_afails. unfold i1. rewrite infailed_items.
        pose proof (sf_cnt _ _ _ _ _ SFx) as Hc. rewrite (HFK k) by lia. rewrite (Hnof k) by lia. reflexivity.
Qed.

Print Assumptions step_SF.
Print Assumptions run_ispec.

Definition jl (js : list job) : list (N * N) :=
  flat_map (fun j => match find_job js (j_id j) with
                     | Some j0 => match j_maxfails j0 with Some m => [(j_id j, m)] | None => [] end
                     | None => []
                     end) js.

Fixpoint run_limits (s : sys) (ops : list op) (L : list (N * N)) : list (N * N) :=
  match ops with
  | [] => L
  | o :: r => match step s o with
              | Ok (s1, _) => run_limits s1 r (jl (h_jobs (s_hq s1)) ++ L)
              | _ => L
              end
  end.
Definition limits_of (reserve maxfill : N) (ops : list op) : list (N * N) := run_limits (init_sys reserve maxfill) ops [].

Lemma jl_in js k m : In (k, m) (jl js) <-> exists j0, find_job js k = Some j0 /\ j_maxfails j0 = Some m.
Proof.
  unfold jl. rewrite in_flat_map. split.
  - intros (j & Hj & Hin). destruct (find_job js (j_id j)) as [j0|] eqn:Ef; [|destruct Hin].
    destruct (j_maxfails j0) as [m0|] eqn:Em; [|destruct Hin]. destruct Hin as [Hin|[]]. inversion Hin; subst. exists j0. split; assumption.
  - intros (j0 & Ef & Em). exists j0. split; [eapply find_job_in; exact Ef|].
    rewrite (find_job_id _ _ _ Ef), Ef, Em. left. reflexivity.
Qed.

Record LI (s : sys) (L : list (N * N)) : Prop := mkLI {
  li_fun : forall k m m', In (k, m) L -> In (k, m') L -> m = m';
  li_lt : forall k m, In (k, m) L -> k < h_counter (s_hq s);
  li_all : forall k j m, find_job (h_jobs (s_hq s)) k = Some j -> j_maxfails j = Some m -> In (k, m) L
}.

Lemma lget_fun L k m : (forall k0 m0 m', In (k0, m0) L -> In (k0, m') L -> m0 = m') -> In (k, m) L -> lget L k = Some m.
Proof.
  intros Hf Hin. unfold lget. destruct (find (fun kv => N.eqb (fst kv) k) L) as [[k' m']|] eqn:E.
  - apply find_some in E. destruct E as [Hin' E]. cbn [fst] in E. apply N.eqb_eq in E. subst k'. cbn [snd]. f_equal. exact (Hf _ _ _ Hin' Hin).
  - pose proof (find_none _ _ E _ Hin) as X. cbn [fst] in X. rewrite N.eqb_refl in X. discriminate.
Qed.

Lemma LI_step s o s1 o1 L : INV s -> INV s1 -> op_wf o -> step s o = Ok (s1, o1) -> LI s L -> LI s1 (jl (h_jobs (s_hq s1)) ++ L).
Proof.
  intros HI HI1 Hwf H [Lf Ll La]. pose proof (step_SF [] _ _ _ _ HI Hwf H) as SFx.
  pose proof (sf_cnt _ _ _ _ _ SFx) as Hc. pose proof (inv_fresh _ HI1) as Fr1.
  assert (Hnew : forall k m, In (k, m) (jl (h_jobs (s_hq s1))) -> In (k, m) L \/ h_counter (s_hq s) <= k).
  { intros k m Hin. apply jl_in in Hin. destruct Hin as (j0 & Ef & Em).
    destruct (sf_jobs _ _ _ _ _ SFx k j0 Ef) as [(j & A & B & _)|[A _]]; [left | right; exact A].
    apply (La _ j); [exact A | congruence]. }
  constructor.
  - intros k m m' H1 H2. apply in_app_iff in H1. apply in_app_iff in H2.
    destruct H1 as [H1|H1], H2 as [H2|H2].
    + apply jl_in in H1. apply jl_in in H2. destruct H1 as (j1 & E1 & M1). destruct H2 as (j2 & E2 & M2). congruence.
    + destruct (Hnew _ _ H1) as [A|A]; [exact (Lf _ _ _ A H2) | specialize (Ll _ _ H2); lia].
    + destruct (Hnew _ _ H2) as [A|A]; [exact (Lf _ _ _ H1 A) | specialize (Ll _ _ H1); lia].
    + exact (Lf _ _ _ H1 H2).
  - intros k m Hin. apply in_app_iff in Hin. destruct Hin as [Hin|Hin]; [|specialize (Ll _ _ Hin); lia].
    apply jl_in in Hin. destruct Hin as (j0 & Ef & _).
    pose proof (Fr1 _ (find_job_in _ _ _ Ef)) as Hlt. rewrite (find_job_id _ _ _ Ef) in Hlt. exact Hlt.
  - intros k j m Ef Em. apply in_app_iff. left. apply jl_in. exists j. split; assumption.
Qed.

Lemma run_limits_incl ops : forall s L e, In e L -> In e (run_limits s ops L).
Proof.
  induction ops as [|o r IH]; cbn [run_limits]; intros s L e H; [exact H|].
  destruct (step s o) as [[s1 o1]| |]; [|exact H | exact H]. apply IH. apply in_app_iff. right; exact H.
Qed.

Lemma run_limits_fun ops : forall s L, along INV s ops -> Forall op_wf ops -> LI s L ->
  forall k m m', In (k, m) (run_limits s ops L) -> In (k, m') (run_limits s ops L) -> m = m'.
Proof.
  induction ops as [|o r IH]; cbn [run_limits]; intros s L Hal Hwf HL; [exact (li_fun _ _ HL)|].
  cbn [along] in Hal. destruct Hal as [HI Hal]. inversion Hwf as [|? ? Hw1 Hw2]; subst.
  destruct (step s o) as [[s1 o1]| |] eqn:E; [|exact (li_fun _ _ HL) | exact (li_fun _ _ HL)].
  apply (IH s1); [exact Hal | exact Hw2|]. eapply LI_step; [exact HI | exact (along_head _ _ _ Hal) | exact Hw1 | exact E | exact HL].
Qed.

Lemma run_limits_LIMOK ops : forall s L, along INV s ops -> Forall op_wf ops -> LI s L ->
  forall Lf, (forall e, In e (run_limits s ops L) -> In e Lf) -> (forall k m m', In (k, m) Lf -> In (k, m') Lf -> m = m') ->
  along (LIMOK Lf) s ops.
Proof.
  induction ops as [|o r IH]; intros s L Hal Hwf HL Lf Hincl Hfun.
  - cbn [along]. split; [|exact I]. intros k j m Ef Em. apply lget_fun; [exact Hfun|]. apply Hincl. cbn [run_limits]. exact (li_all _ _ HL _ _ _ Ef Em).
  - cbn [along] in Hal |- *. destruct Hal as [HI Hal]. inversion Hwf as [|? ? Hw1 Hw2]; subst. split.
    + intros k j m Ef Em. apply lget_fun; [exact Hfun|]. apply Hincl. apply run_limits_incl. exact (li_all _ _ HL _ _ _ Ef Em).
    + cbn [run_limits] in Hincl. destruct (step s o) as [[s1 o1]| |] eqn:E; [|exact I | exact I].
      apply (IH s1 (jl (h_jobs (s_hq s1)) ++ L)); [exact Hal | exact Hw2 | | exact Hincl | exact Hfun].
      eapply LI_step; [exact HI | exact (along_head _ _ _ Hal) | exact Hw1 | exact E | exact HL].
Qed.

Lemma LI_init reserve maxfill : LI (init_sys reserve maxfill) [].
Proof. constructor; [intros k m m' [] | intros k m [] | intros k j m H; discriminate]. Qed.

Lemma run_items'_to_run ops : forall kn s s' items, run_items' kn s ops = Ok (s', items) -> exists outs, run s ops = Ok (s', outs).
Proof.
  induction ops as [|o r IH]; cbn [run run_items']; intros kn s s' items H; [inversion H; subst; eexists; reflexivity|].
  apply bind_ok in H. destruct H as ([s1 o1] & H1 & H). apply bind_ok in H. destruct H as ([s2 i2] & H2 & H). inversion H; subst.
  destruct (IH _ _ _ _ H2) as (o2 & Ho). rewrite H1. cbn [bind]. rewrite Ho. cbn [bind]. eexists; reflexivity.
Qed.

(** The clean form for one operation: every task named by an [EvAborted] of the step is a task of
    the core with a kept dependency that is aborted by the same event or fails in the very next
    output, or its job's failure counter - the one of the state plus the failures reported
    earlier in the step - exceeds the job's limit. *)
Theorem step_abort_cause s o s' outs pre ts post t :
  INV s -> op_wf o -> step s o = Ok (s', outs) -> outs = pre ++ OEv (EvAborted ts) :: post -> In t ts ->
  (exists tx d, find_task (c_tasks (s_core s)) t = Some tx /\ In d (t_deps tx) /\
                (In d ts \/ exists k post', post = OEv (EvFailed d k) :: post'))
  \/ (exists j m, find_job (h_jobs (s_hq s)) (fst t) = Some j /\ j_maxfails j = Some m /\ m < j_nfail j + onfailed (fst t) pre).
Proof. intros HI Hwf H E Ht. exact (sf_ac _ _ _ _ _ (step_SF [] _ _ _ _ HI Hwf H) pre ts post t E Ht). Qed.

(** The clean form for a whole history, in the monitor's vocabulary ([ispec], AbortCauseBase.v). *)
Theorem history_abort_cause ops reserve maxfill s items :
  Forall op_wf ops -> run_fresh (init_sys reserve maxfill) ops = true ->
  run_items' [] (init_sys reserve maxfill) ops = Ok (s, items) ->
  ispec (limits_of reserve maxfill ops) [] [] items.
Proof.
  intros Hwf Hf H. pose proof (along_INV _ _ _ Hwf Hf) as Hal.
  apply (run_ispec (limits_of reserve maxfill ops) ops [] (init_sys reserve maxfill) [] [] s items); [exact Hal | | exact Hwf | | | | | exact H].
  - apply (run_limits_LIMOK ops _ [] Hal Hwf (LI_init _ _)); [intros e He; exact He|].
    exact (run_limits_fun ops _ [] Hal Hwf (LI_init _ _)).
  - split; [intros k j Hj; discriminate | intros k _; reflexivity].
  - intros x tx Hx. discriminate.
  - intros k j Hj. discriminate.
  - intros k _. reflexivity.
Qed.

Theorem abort_justified_run_fresh ops reserve maxfill s items :
  Forall op_wf ops -> run_fresh (init_sys reserve maxfill) ops = true ->
  run_items' [] (init_sys reserve maxfill) ops = Ok (s, items) ->
  abort_justified [] (limits_of reserve maxfill ops) [] [] items = true.
Proof. intros Hwf Hf H. apply aj_sound. eapply history_abort_cause; eassumption. Qed.

(** Main theorem (static hypothesis [ops_ok], NoFresh.v). *)
Theorem abort_justified_run ops reserve maxfill s items :
  Forall op_wf ops -> ops_ok (init_sys reserve maxfill) ops = true ->
  run_items' [] (init_sys reserve maxfill) ops = Ok (s, items) ->
  abort_justified [] (limits_of reserve maxfill ops) [] [] items = true.
Proof.
  intros Hwf Hok H. destruct (run_items'_to_run _ _ _ _ _ H) as (outs & Hr).
  exact (abort_justified_run_fresh ops reserve maxfill s items Hwf (fresh_of_ops _ _ _ _ _ Hwf Hok Hr) H).
Qed.


(** The limits exactly as the driver keeps them: a job id is entered once. *)
Definition ladd (L : list (N * N)) (e : N * N) : list (N * N) :=
  match lget L (fst e) with Some _ => L | None => e :: L end.
Fixpoint run_limits_drv (s : sys) (ops : list op) (L : list (N * N)) : list (N * N) :=
  match ops with
  | [] => L
  | o :: r => match step s o with
              | Ok (s1, _) => run_limits_drv s1 r (fold_left ladd (jl (h_jobs (s_hq s1))) L)
              | _ => L
              end
  end.
Definition limits_drv (reserve maxfill : N) (ops : list op) : list (N * N) := run_limits_drv (init_sys reserve maxfill) ops [].

Lemma lget_app A B k : lget (A ++ B) k = match lget A k with Some m => Some m | None => lget B k end.
Proof.
  unfold lget. induction A as [|[a b] r IH]; [reflexivity|]. cbn [app find fst]. destruct (N.eqb a k); [reflexivity | exact IH].
Qed.

Lemma lget_ladd L e k : lget (ladd L e) k = match lget L k with Some m => Some m | None => if N.eqb (fst e) k then Some (snd e) else None end.
Proof.
  unfold ladd. destruct (lget L (fst e)) as [m0|] eqn:E.
  - destruct (lget L k) eqn:Ek; [reflexivity|]. destruct (N.eqb (fst e) k) eqn:E2; [|reflexivity].
    apply N.eqb_eq in E2. subst k. congruence.
  - unfold lget at 1. cbn [find]. destruct (N.eqb (fst e) k) eqn:E2.
    + apply N.eqb_eq in E2. subst k. rewrite E. reflexivity.
    + fold (lget L k). destruct (lget L k); reflexivity.
Qed.

Lemma lget_fold_ladd A : forall L k, lget (fold_left ladd A L) k = match lget L k with Some m => Some m | None => lget A k end.
Proof.
  induction A as [|e r IH]; intros L k; cbn [fold_left]; [destruct (lget L k); reflexivity|].
  rewrite IH, lget_ladd. destruct (lget L k); [reflexivity|].
  unfold lget at 2. cbn [find]. destruct (N.eqb (fst e) k); reflexivity.
Qed.

Lemma lget_in L k m : lget L k = Some m -> In (k, m) L.
Proof.
  unfold lget. destruct (find (fun kv => N.eqb (fst kv) k) L) as [[k' m']|] eqn:E; [|discriminate].
  intros H. inversion H; subst. apply find_some in E. destruct E as [Hin E]. cbn [fst] in E. apply N.eqb_eq in E. subst k'. exact Hin.
Qed.

Lemma run_limits_drv_same ops : forall s L L', along INV s ops -> Forall op_wf ops -> LI s L ->
  (forall k, lget L' k = lget L k) -> forall k, lget (run_limits_drv s ops L') k = lget (run_limits s ops L) k.
Proof.
  induction ops as [|o r IH]; cbn [run_limits run_limits_drv]; intros s L L' Hal Hwf HL E; [exact E|].
  cbn [along] in Hal. destruct Hal as [HI Hal]. inversion Hwf as [|? ? Hw1 Hw2]; subst.
  destruct (step s o) as [[s1 o1]| |] eqn:Es; [|exact E | exact E].
  pose proof (LI_step _ _ _ _ _ HI (along_head _ _ _ Hal) Hw1 Es HL) as HL1.
  apply (IH s1); [exact Hal | exact Hw2 | exact HL1|].
  intros k. rewrite lget_fold_ladd, lget_app, E.
  destruct (lget L k) as [m|] eqn:E1; [|destruct (lget (jl (h_jobs (s_hq s1))) k); reflexivity].
  destruct (lget (jl (h_jobs (s_hq s1))) k) as [m'|] eqn:E2; [|reflexivity]. f_equal.
  apply (li_fun _ _ HL1 k); apply in_app_iff; [right; apply lget_in; exact E1 | left; apply lget_in; exact E2].
Qed.

(** The monitor reads the limits through [lget] only. *)
Lemma aj_limits_ext L L' : (forall k, lget L k = lget L' k) ->
  forall tr D F Dd, abort_justified D L F Dd tr = abort_justified D L' F Dd tr.
Proof.
  intros E. induction tr as [|i r IH]; intros D F Dd; [reflexivity|].
  destruct i as [e| | | | | | | |j ts]; try (cbn [abort_justified]; apply IH).
  destruct e;
    try match goal with |- abort_justified _ _ _ _ (IEv (EvAborted _) :: _) = _ => idtac
        | _ => cbn [abort_justified]; apply IH end.
  rewrite !aj_aborted, IH. f_equal. apply forallb_ext. intros t. unfold aj_ok. rewrite E. reflexivity.
Qed.

Theorem abort_justified_run_drv ops reserve maxfill s items :
  Forall op_wf ops -> ops_ok (init_sys reserve maxfill) ops = true ->
  run_items' [] (init_sys reserve maxfill) ops = Ok (s, items) ->
  abort_justified [] (limits_drv reserve maxfill ops) [] [] items = true.
Proof.
  intros Hwf Hok H. destruct (run_items'_to_run _ _ _ _ _ H) as (outs & Hr).
  pose proof (fresh_of_ops _ _ _ _ _ Hwf Hok Hr) as Hf.
  rewrite (aj_limits_ext (limits_drv reserve maxfill ops) (limits_of reserve maxfill ops)).
  - exact (abort_justified_run_fresh ops reserve maxfill s items Hwf Hf H).
  - apply (run_limits_drv_same ops _ [] []); [exact (along_INV _ _ _ Hwf Hf) | exact Hwf | apply LI_init | reflexivity].
Qed.

(** A job with failure limit 0 and three independent tasks; (1,0) fails on its worker: the rest of
    the job is aborted AFTER the failure, justified by the limit. *)
Definition ac_lim_ops : list op :=
  [OpConnect [20000; 0; 0] 0;
   OpSubmit None [] (Some 3) ac_rq 0%Z (CMax 3) false (Some 0);
   OpSched (mkSol [(0, 0, [(1, 1)])] [] [1] []);
   OpDDown 1 []; OpDDown 1 []; OpDUp 1; OpEnd 1 (1, 0) EndFail; OpDUp 1].

Example abort_justified_limit_example :
  exists s items,
    Forall op_wf ac_lim_ops /\ ops_ok (init_sys 0 2) ac_lim_ops = true /\
    run_items' [] (init_sys 0 2) ac_lim_ops = Ok (s, items) /\
    limits_drv 0 2 ac_lim_ops = [(1, 0)] /\
    (exists a c, items = a ++ IEv (EvFailed (1, 0) FTask) :: IEv (EvAborted [(1, 1); (1, 2)]) :: c) /\
    abort_justified [] (limits_drv 0 2 ac_lim_ops) [] [] items = true /\
    abort_justified [] [] [] [] items = false.
Proof.
  do 2 eexists. split; [repeat constructor|]. split; [vm_compute; reflexivity|]. split; [vm_compute; reflexivity|].
  split; [vm_compute; reflexivity|]. split; [|split; vm_compute; reflexivity].
  eexists (_ :: _ :: _ :: _ :: _ :: _ :: []), [_]. reflexivity.
Qed.

(** The history of AbortCauseRefute.v (a task-graph submit and then an array submit to the same open
    job; the dependent (1,1) of the failing task (1,0) is aborted just BEFORE the failure): the array
    submit is reported with its new id only, and the monitor accepts. *)
Example abort_justified_dependent_example :
  exists s items,
    Forall op_wf ac_shadow_ops /\ ops_ok (init_sys 0 2) ac_shadow_ops = true /\
    run_items' [] (init_sys 0 2) ac_shadow_ops = Ok (s, items) /\
    In (ISubmitted 1 [(0, []); (1, [0])]) items /\ In (ISubmitted 1 [(2, [])]) items /\
    (exists a c, items = a ++ IEv (EvAborted [(1, 1)]) :: IEv (EvFailed (1, 0) FTask) :: c) /\
    abort_justified [] (limits_drv 0 2 ac_shadow_ops) [] [] items = true.
Proof.
  do 2 eexists. split; [repeat constructor|]. split; [vm_compute; reflexivity|]. split; [vm_compute; reflexivity|].
  split; [vm_compute; tauto|]. split; [vm_compute; tauto|]. split; [|vm_compute; reflexivity].
  eexists (_ :: _ :: _ :: _ :: _ :: _ :: _ :: _ :: _ :: _ :: []), []. reflexivity.
Qed.

(** The hypotheses of [step_abort_cause] at the step that processes the failure, and both kinds of
    cause. *)
Example step_abort_cause_example :
  exists s outs s' outs', run (init_sys 0 2) (removelast ac_lim_ops) = Ok (s, outs) /\ INV s /\
    step s (OpDUp 1) = Ok (s', outs') /\
    outs' = [OUp 1 (UUpdates [UFailed (1, 0) FTask; URunningPrefilled (1, 2) 0]); OEv (EvFailed (1, 0) FTask); OEv (EvAborted [(1, 1); (1, 2)]); OEv (EvCompleted 1)] /\
    exists j, find_job (h_jobs (s_hq s)) 1 = Some j /\ j_maxfails j = Some 0 /\ j_nfail j = 0.
Proof.
  assert (Hwf : Forall op_wf (removelast ac_lim_ops)) by (repeat constructor).
  assert (Hf : run_fresh (init_sys 0 2) (removelast ac_lim_ops) = true) by (vm_compute; reflexivity).
  destruct (run (init_sys 0 2) (removelast ac_lim_ops)) as [[s outs]| |] eqn:Er; [|vm_compute in Er; discriminate | vm_compute in Er; discriminate].
  pose proof (reachable_INV _ _ _ _ _ Hwf Hf Er) as HI.
  vm_compute in Er. inversion Er; subst s outs. clear Er.
  do 4 eexists. split; [reflexivity|]. split; [exact HI|]. split; [vm_compute; reflexivity|]. split; [reflexivity|].
  eexists. split; [vm_compute; reflexivity|]. split; reflexivity.
Qed.

(** The monitor is not trivially true: an abort without a dead dependency and without an exceeded
    limit is rejected; the dependents' abort placed AFTER a later, unrelated event is rejected; a
    limit that is not exceeded does not justify an abort. *)
Example abort_justified_rejects :
  abort_justified [] [] [] [] [ISubmitted 1 [(0, []); (1, [])]; IEv (EvAborted [(1, 1)])] = false
  /\ abort_justified [] [] [] [] [ISubmitted 1 [(0, []); (1, [0])]; IEv (EvAborted [(1, 1)]); IEv (EvCompleted 1); IEv (EvFailed (1, 0) FTask)] = false
  /\ abort_justified [] [(1, 1)] [] [] [ISubmitted 1 [(0, []); (1, [])]; IEv (EvFailed (1, 0) FTask); IEv (EvAborted [(1, 1)])] = false
  /\ abort_justified [] [(1, 0)] [] [] [ISubmitted 1 [(0, []); (1, [])]; IEv (EvFailed (1, 0) FTask); IEv (EvAborted [(1, 1)])] = true
  /\ abort_justified [] [] [] [] [ISubmitted 1 [(0, []); (1, [0])]; IEv (EvAborted [(1, 1)]); IEv (EvFailed (1, 0) FTask)] = true.
Proof. vm_compute. repeat split; reflexivity. Qed.

Print Assumptions step_abort_cause.
Print Assumptions history_abort_cause.
Print Assumptions abort_justified_run.
Print Assumptions abort_justified_run_drv.
