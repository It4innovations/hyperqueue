(** C05, accounting conjunct, part 2: the reactor.  Every reactor function keeps [AI rqf]
    (all workers accounted against the ghost, every task's request is what the ghost says) -
    unconditionally, EXCEPT [task_running], which needs "the subtraction does not saturate"
    ([running_fits], the negation of finding F23). *)
From HQ Require Import Base.Prelude Cluster.Types Cluster.Core Cluster.Reactor Cluster.Worker Cluster.Server Cluster.Sys Cluster.Monitors Cluster.ProofsJob Cluster.ProofsStep Cluster.BijBase Cluster.BijCore Cluster.BijHq Cluster.BijSt Cluster.CrashFrame Cluster.RejHyp Cluster.InvWBase Cluster.InvWCore Cluster.InvWX1 Cluster.AcctBase.
From HQ Require Import Cluster.ModelFacts.
From HQ Require Import Cluster.ReactSplit.
From Coq Require Import ZArith Lia.
Local Open Scope N_scope.

Arguments N.add : simpl never.
Arguments N.sub : simpl never.

Definition AIS (rqf : tid -> list N) (rqs : list rqdef) (s : st) : Prop := AI rqf rqs (core_of s).

Definition running_fits (s : st) (w : wid) (id : tid) : bool :=
  let c := core_of s in
  match find_task (c_tasks c) id with
  | Some t =>
      match t_state t with
      | Prefilled _ =>
          match find_worker (c_workers c) w with Some wk => wfits wk (request_of c id) | None => true end
      | Retracting _ =>
          (* the redirect of the task, if any, is undone first (that may give resources back to [w]) *)
          match try_remove_redirection (with_flag c true) t with
          | Ok c1 => match find_worker (c_workers c1) w with Some wk => wfits wk (request_of c id) | None => true end
          | _ => true
          end
      | _ => true
      end
  | None => true
  end.

Lemma retract_states_AI rqf rqs ids : forall c acc c' acc', AI rqf rqs c -> retract_states c ids acc = Ok (c', acc') -> AI rqf rqs c'.
Proof.
  induction ids as [|id r IH]; cbn [retract_states]; intros c acc c' acc' HA H; [injection H as <- _; exact HA|].
  apply bind_ok in H as (t & Ht & H). apply get_task_find in Ht. destruct (t_state t); try discriminate.
  inv_binds H. eapply IH; [|exact H]. eapply AI_remove_prefill; [eapply AI_with_state|..]; eassumption.
Qed.

Lemma process_retracted_AI rqf rqs s r s' : AIS rqf rqs s -> process_retracted s r = Ok s' -> AIS rqf rqs s'.
Proof.
  unfold process_retracted, AIS. intros HA H. destruct r; [injection H as <-; exact HA|].
  inv_binds H. rewrite (send_all_core _ _ _ H). eapply retract_states_AI; eassumption.
Qed.

Lemma try_remove_redirection_AI rqf rqs c t c' :
  AI rqf rqs c -> lk rqs (t_rq t) = rqf (t_id t) -> try_remove_redirection c t = Ok c' -> AI rqf rqs c'.
Proof.
  unfold try_remove_redirection. intros HA Hl H.
  destruct (find_redirect (c_redirects c) (t_id t)) as [[w rv]|]; inv_binds H; injection H as <-; [|exact HA].
  eapply AI_remove_sn; [exact HA | eassumption.. | eapply AI_rq; eassumption].
Qed.

Lemma reset_mn_all_AI rqf rqs l : forall c c', AI rqf rqs c -> reset_mn_all c l = Ok c' -> AI rqf rqs c'.
Proof.
  induction l as [|w r IH]; cbn [reset_mn_all]; intros c c' HA H; [injection H as <-; exact HA|].
  step_bind H. eapply IH; [|exact H]. apply AI_upd_worker; [exact HA | apply accw_reset].
Qed.

Lemma reset_mn_workers_AI rqf rqs l c id c' : AI rqf rqs c -> reset_mn_workers c l id = Ok c' -> AI rqf rqs c'.
Proof. intros HA H. eapply reset_mn_all_AI; [exact HA | eapply reset_mn_workers_all; exact H]. Qed.

(** The release step (ReactSplit.v): the resources of the task's request go back to the worker. *)
Lemma released_AI rqf rqs c id rq t c1 :
  AI rqf rqs c -> find_task (c_tasks c) id = Some t -> get_rq (c_rqs c) (t_rq t) = Ok rq -> released c id rq t c1 -> AI rqf rqs c1.
Proof.
  intros HA Ef Hrq Hrel. pose proof (AI_get_rq _ _ _ _ _ _ HA Ef Hrq) as Erq.
  destruct Hrel as [Hs | w wk wk' Hs Hw Hrm | w q q' wk wk' Hs Hq Hq' Hw Hrm | w c2 Hs H1 | ws c2 Hs H1 | ws c2 Hs H1].
  - exact HA.
  - eapply AI_remove_sn; eassumption.
  - exact (AI_remove_prefill _ _ (with_queues c _) _ _ _ _ HA Hw Hrm).
  - eapply try_remove_redirection_AI; [exact HA | exact (proj1 (AI_find _ _ _ _ _ HA Ef)) | exact H1].
  - eapply reset_mn_all_AI; eassumption.
  - eapply reset_mn_workers_AI; eassumption.
Qed.

Lemma rcf_TL rqf rqs deps : forall ts cid ts', TL rqf rqs ts -> remove_consumer_from ts deps cid = Ok ts' -> TL rqf rqs ts'.
Proof.
  induction deps as [|d r IH]; cbn [remove_consumer_from]; intros ts cid ts' HT H; [injection H as <-; exact HT|].
  destruct (find_task ts d) as [input|] eqn:Ef; [|eapply IH; eassumption].
  destruct (tid_mem cid (t_consumers input)); [|discriminate].
  eapply IH; [|exact H]. apply TL_set; [exact HT|]. apply (HT input). apply (find_task_some _ _ _ Ef).
Qed.

Lemma remove_task_AI rqf rqs c id c' stt : AI rqf rqs c -> remove_task c id = Ok (c', stt) -> AI rqf rqs c'.
Proof.
  unfold remove_task. intros HA H. destruct (find_task (c_tasks c) id) as [t|]; [|discriminate].
  assert (A1 : AI rqf rqs (with_tasks c (del_task (c_tasks c) id))).
  { destruct HA as (A & R & C). split; [exact A | split; [exact R | apply TL_del; exact C]]. }
  destruct (t_state t) as [n| | | | | |]; try (injection H as <- _; exact A1).
  apply bind_ok in H as (c2 & H2 & H).
  assert (A2 : AI rqf rqs c2) by (destruct (N.eqb n 0); [inv_binds H2|]; injection H2 as <-; exact A1).
  destruct (N.ltb 0 n); [|injection H as <- _; exact A2].
  step_bind H. injection H as <- _. destruct A2 as (A & R & C).
  split; [exact A | split; [exact R | eapply rcf_TL; eassumption]].
Qed.

Lemma remove_tasks_batched_AI rqf rqs ids : forall c c', AI rqf rqs c -> remove_tasks_batched c ids = Ok c' -> AI rqf rqs c'.
Proof.
  induction ids as [|id r IH]; cbn [remove_tasks_batched]; intros c c' HA H; [injection H as <-; exact HA|].
  inv_binds H. eapply IH; [|exact H]. eapply remove_task_AI; eassumption.
Qed.

Lemma remove_waiting_consumers_AI rqf rqs l : forall c c', AI rqf rqs c -> remove_waiting_consumers c l = Ok c' -> AI rqf rqs c'.
Proof.
  induction l as [|x r IH]; cbn [remove_waiting_consumers]; intros c c' HA H; [injection H as <-; exact HA|].
  apply bind_ok in H as ([c1 st1] & H1 & H). destruct st1; try discriminate. eapply IH; [|exact H]. eapply remove_task_AI; eassumption.
Qed.

Lemma ask_scheduling_AI rqf rqs s : AIS rqf rqs s -> AIS rqf rqs (ask_scheduling s).
Proof. intros HA. exact HA. Qed.

Lemma cancel_release_AI rqf rqs ids : forall s tu ru s' tu' ru',
  AIS rqf rqs s -> cancel_release s ids tu ru = Ok (s', tu', ru') -> AIS rqf rqs s'.
Proof.
  induction ids as [|id r IH]; intros s tu ru s' tu' ru' HA H; [injection H as <- _ _; exact HA|].
  destruct (cancel_release_step _ _ _ _ _ _ H) as [[_ H1] | (t & rq & c1 & s1 & tu1 & ru1 & Ef & Hrq & _ & Hrel & E & H1)]; [eapply IH; eassumption|].
  eapply IH; [|exact H1]. unfold AIS. pose proof (released_AI _ _ _ _ _ _ _ HA Ef Hrq Hrel) as A1. destruct E as [-> | ->]; exact A1.
Qed.

Lemma on_cancel_tasks_AI rqf rqs s ids s' : AIS rqf rqs s -> on_cancel_tasks s ids = Ok s' -> AIS rqf rqs s'.
Proof.
  unfold on_cancel_tasks. intros HA H. inv_binds H. unfold AIS. rewrite (send_all_core _ _ _ H).
  eapply remove_tasks_batched_AI; [|eassumption]. eapply cancel_release_AI; eassumption.
Qed.

Lemma task_failed_AI rqf rqs s w id k s' : AIS rqf rqs s -> task_failed s w id k = Ok s' -> AIS rqf rqs s'.
Proof.
  unfold task_failed. intros HA H. destruct (find_task (c_tasks (core_of s)) id) as [t|] eqn:Ef; [|injection H as <-; exact HA].
  apply bind_ok in H as (rq & Hrq & H).
  pose proof (proj1 (AI_find _ _ _ _ _ HA Ef)) as Elk.
  apply bind_ok in H as (c1 & Hc1 & H).
  assert (A1 : AI rqf rqs c1).
  { destruct (failed_release _ _ _ _ _ _ Hc1) as [Hrel | (-> & _)]; [exact (released_AI _ _ _ _ _ _ _ HA Ef Hrq Hrel) | exact HA]. }
  step_bind H. apply bind_ok in H as (c2 & Hc2 & H). apply bind_ok in H as ([c3 stt] & Hx & H).
  step_bind H. apply bind_ok in H as ([s1 cancel_ids] & Hy & H).
  assert (A4 : AIS rqf rqs s1).
  { unfold AIS. rewrite (process_task_failed_core _ _ _ _ _ _ Hy). eapply remove_task_AI; [eapply remove_waiting_consumers_AI|]; eassumption. }
  destruct cancel_ids; [injection H as <-; exact A4|]. eapply on_cancel_tasks_AI; eassumption.
Qed.

Lemma wake_consumers_AI rqf rqs csm : forall c ret c' ret', AI rqf rqs c -> wake_consumers c csm ret = Ok (c', ret') -> AI rqf rqs c'.
Proof.
  induction csm as [|x r IH]; cbn [wake_consumers]; intros c ret c' ret' HA H; [injection H as <- _; exact HA|].
  apply bind_ok in H as (t & Ht & H). apply get_task_find in Ht. destruct (t_state t) as [n| | | | | |]; try discriminate.
  destruct (N.eqb n 0); [discriminate|].
  pose proof (AI_with_state _ _ _ _ _ (Waiting (n - 1)) HA Ht) as A1.
  destruct (N.eqb (n - 1) 0); [inv_binds H|]; (eapply IH; [|exact H]); exact A1.
Qed.

Lemma task_finished_AI rqf rqs s w id s' b : AIS rqf rqs s -> task_finished s w id = Ok (s', b) -> AIS rqf rqs s'.
Proof.
  unfold task_finished. intros HA H. destruct (find_task (c_tasks (core_of s)) id) as [t|] eqn:Ef; [|injection H as <- _; exact HA].
  apply bind_ok in H as (rq & Hrq & H).
  pose proof (proj1 (AI_find _ _ _ _ _ HA Ef)) as Elk.
  apply bind_ok in H as (c1 & Hc1 & H).
  pose proof (released_AI _ _ _ _ _ _ _ HA Ef Hrq (finished_release _ _ _ _ _ _ Hc1)) as A1.
  cbv zeta in H. apply bind_ok in H as (s1 & Hs1 & H). apply bind_ok in H as ([c3 retracted] & Hx & H).
  apply bind_ok in H as (s2 & Hs2 & H). apply bind_ok in H as ([c4 stt] & Hy & H).
  destruct stt; try discriminate. injection H as <- _. unfold AIS. cbn.
  eapply remove_task_AI; [|exact Hy].
  eapply (process_retracted_AI rqf rqs (st_core s1 c3)); [|exact Hs2].
  eapply wake_consumers_AI; [|exact Hx].
  destruct (process_task_finished_active _ _ _ Hs1) as [C1 _]. unfold core_same in C1. rewrite C1.
  apply AI_upd_task; [exact A1 | exact Elk].
Qed.

Lemma task_running_AI rqf rqs s w id rv s' b :
  AIS rqf rqs s -> running_fits s w id = true -> task_running s w id rv = Ok (s', b) -> AIS rqf rqs s'.
Proof.
  unfold task_running, running_fits. intros HA HF H. cbv zeta in HF.
  destruct (find_task (c_tasks (core_of s)) id) as [t|] eqn:Ef; [|injection H as <- _; exact HA].
  apply bind_ok in H as (rq & Hrq & H). pose proof (AI_get_rq _ _ _ _ _ _ HA Ef Hrq) as Erq.
  pose proof (proj1 (AI_find _ _ _ _ _ HA Ef)) as Elk.
  rewrite (request_of_get_rq _ _ _ _ Ef Hrq), Erq in HF. rewrite Erq in H.
  apply bind_ok in H as ([s1 ws] & Hx & H). apply bind_ok in H as (s2 & Hs2 & H). injection H as <- _.
  destruct (process_task_started_active _ _ _ _ _ _ Hs2) as [C2 _]. unfold core_same in C2. unfold AIS. rewrite C2.
  destruct (t_state t) as [n|w1 rv1|w1|w1|w1 rv1|[|w0 wr]|]; try discriminate.
  - destruct (negb (N.eqb w1 w)); [discriminate|]. destruct (negb (N.eqb rv1 rv)); [discriminate|]. injection Hx as <- _.
    eapply AI_with_state; eassumption.
  - destruct (negb (N.eqb w1 w)); [discriminate|]. cbv zeta in Hx.
    apply bind_ok in Hx as (wk & Hw & Hx). apply bind_ok in Hx as (wk' & Hw' & Hx). inv_binds Hx. injection Hx as <- _. cbn.
    cbn [c_workers upd_task with_tasks] in Hw. apply get_worker_find in Hw. rewrite Hw in HF.
    apply AI_upd_worker; [eapply AI_with_state; eassumption|].
    apply (accw_p2s_iff _ _ _ _ (AI_worker _ _ _ _ _ HA Hw) Hw'). exact HF.
  - destruct (negb (N.eqb w1 w)); [discriminate|]. cbv zeta in Hx.
    apply bind_ok in Hx as (c1 & Hc1 & Hx). apply bind_ok in Hx as (wk & Hw & Hx). apply bind_ok in Hx as (wk' & Hw' & Hx).
    injection Hx as <- _. cbn.
    change (core_of (ask_scheduling s)) with (with_flag (core_of s) true) in Hc1. rewrite Hc1 in HF.
    cbn [c_workers upd_task with_tasks] in Hw. apply get_worker_find in Hw. rewrite Hw in HF.
    assert (A1 : AI rqf rqs c1) by (eapply try_remove_redirection_AI; [| exact Elk | exact Hc1]; exact HA).
    apply AI_upd_worker; [apply AI_upd_task; [exact A1 | exact Elk]|].
    apply (accw_insert_iff _ _ _ _ (AI_worker _ _ _ _ _ A1 Hw) Hw'). exact HF.
  - destruct (N.eqb w0 w); [|discriminate]. injection Hx as <- _. exact HA.
Qed.
