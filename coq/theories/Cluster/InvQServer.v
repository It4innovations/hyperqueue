(** The queue invariant, part 7: worker registration and loss.  [on_remove_worker] is the one place
    where a fact about the worker sets is needed ([asg_ok]): the ids of the lost worker's assigned
    set are re-queued unconditionally, so none of them may be a Prefilled task. *)
From HQ Require Import Base.Prelude Cluster.Types Cluster.Core Cluster.Reactor Cluster.Worker Cluster.Server Cluster.Sys Cluster.Monitors Cluster.ProofsJob Cluster.ProofsMore Cluster.ProofsTerminal Cluster.ProofsStep Cluster.BijBase Cluster.BijCore Cluster.BijHq Cluster.BijSt Cluster.BijReact Cluster.FrameGen Cluster.CrashFrame Cluster.InvQBase Cluster.InvQTake Cluster.InvQInv Cluster.InvQOps Cluster.InvQReact Cluster.InvQReact2.
From HQ Require Import Cluster.StepShape.
From HQ Require Import Cluster.ModelFacts.
From Coq Require Import ZArith Lia Sorting.Sorted.
Local Open Scope N_scope.

Arguments N.add : simpl never.
Arguments N.sub : simpl never.

Lemma on_new_worker_QI s rs g s' : QI none [] (core_of s) -> on_new_worker s rs g = Ok s' -> QI none [] (core_of s').
Proof. unfold on_new_worker. intros V H. inversion H; subst. exact V. Qed.

Lemma member_no_redirect ex Z ts qs rs rqs id t q :
  QV ex Z ts qs rs rqs -> find_task ts id = Some t -> nth_error qs (N.to_nat (t_rq t)) = Some q -> member q id ->
  find_redirect rs id = None.
Proof.
  intros V Hf Hq Hm. destruct (find_redirect rs id) as [v|] eqn:Er; [|reflexivity]. exfalso.
  destruct (qv_red _ _ _ _ _ _ V _ _ Er) as (En & t0 & w & Hf0 & Hw). rewrite Hf in Hf0. inversion Hf0; subst t0.
  pose proof (qv_task _ _ _ _ _ _ V _ _ _ Hf Hq) as Hp. unfold exp_place in Hp. rewrite En, Hw in Hp. cbn in Hp. rewrite Er in Hp.
  exact (placed_member _ _ _ _ Hp Hm eq_refl).
Qed.

(** After a re-queue: the accumulated list of pending retractions. *)
Lemma QV_requeue_norm ex0 Z ts qs rs rqs id t' ret r :
  QV (exL Ready r (exR ex0 id)) Z ts qs rs rqs ->
  (forall y, y <> id -> ex0 y = exL Ready ret none y) ->
  find_task ts id = Some t' -> nat_place rs id (t_state t') = Ready ->
  QV (exL Ready (ret ++ r) none) Z ts qs rs rqs.
Proof.
  intros V Hex Hf Hn. eapply QV_ex_change; [exact V | |].
  - intros y t0 Hf0. unfold exp_place, exL, exR. rewrite tid_mem_app. destruct (tid_eqb y id) eqn:E.
    + apply tid_eqb_eq in E. subst y. rewrite Hf in Hf0. inversion Hf0; subst t0.
      destruct (tid_mem id ret), (tid_mem id r); cbn; unfold none; try reflexivity. symmetry. exact Hn.
    + apply tid_eqb_neq in E. rewrite (Hex _ E). unfold exL, none. destruct (tid_mem y ret), (tid_mem y r); reflexivity.
  - intros y v Hv. destruct (qv_red _ _ _ _ _ _ V _ _ Hv) as (E1 & t0 & w & Hf0 & Hw). unfold exL, exR in E1 |- *. rewrite tid_mem_app.
    destruct (tid_eqb y id) eqn:E.
    + apply tid_eqb_eq in E. subst y. rewrite Hf in Hf0. inversion Hf0; subst t0. rewrite Hw in Hn. cbn in Hn. rewrite Hv in Hn. discriminate.
    + apply tid_eqb_neq in E. rewrite (Hex _ E) in E1. unfold exL, none in E1.
      destruct (tid_mem y r); [discriminate|]. destruct (tid_mem y ret); [discriminate | reflexivity].
Qed.

Definition noNewPf (ts ts' : list task) : Prop :=
  forall id t' w, find_task ts' id = Some t' -> t_state t' = Prefilled w -> exists t, find_task ts id = Some t /\ t_state t = Prefilled w.
Lemma noNewPf_refl ts : noNewPf ts ts.
Proof. intros id t w H1 H2. eauto. Qed.
Lemma noNewPf_trans a b c : noNewPf a b -> noNewPf b c -> noNewPf a c.
Proof. intros H1 H2 id t w A B. destruct (H2 _ _ _ A B) as (t1 & A1 & B1). eapply H1; eassumption. Qed.
Lemma noNewPf_set ts t' : (forall w, t_state t' <> Prefilled w) -> noNewPf ts (set_task ts t').
Proof.
  intros Hn id t w H1 H2. rewrite find_set_task in H1. destruct (tid_eqb id (t_id t')); [inversion H1; subst; exfalso; exact (Hn _ H2) | eauto].
Qed.

Lemma lost_prefilled_QI l : forall c c', QI none [] c -> lost_prefilled c l = Ok c' -> QI none [] c' /\ noNewPf (c_tasks c) (c_tasks c').
Proof.
  induction l as [|id r IH]; cbn [lost_prefilled]; intros c c' V H; [inversion H; subst; split; [exact V | apply noNewPf_refl]|].
  apply bind_ok in H. destruct H as (t & Ht & H). apply get_task_find in Ht.
  apply bind_ok in H. destruct H as (q & Hq & H). apply bind_ok in H. destruct H as (q' & Hq' & H). apply nth_queue_ok in Hq.
  assert (V1' : QI none [] (with_queues (upd_task c (with_state (with_inst t (t_inst t + 1)) (Waiting 0))) (set_queue (c_queues c) (N.to_nat (t_rq t)) q'))).
  { qi_simpl.
    pose proof (nth_error_Forall _ _ _ _ (qv_wf _ _ _ _ _ _ V) Hq) as W.
    destruct (q_move_spec _ _ _ W Hq') as (_ & pp & Hin & _).
    assert (Hnr : find_redirect (c_redirects c) id = None) by (eapply member_no_redirect; [exact V | exact Ht | exact Hq | exists pp; right; exact Hin]).
    pose proof (QV_q_move _ _ _ _ _ _ _ _ _ _ V Ht Hq Hq' Hnr) as V1.
    eapply QV_settle; [exact V1 | exact Ht | apply exU_same | exact (find_task_id _ _ _ Ht) | reflexivity | reflexivity | | reflexivity | cbn; discriminate].
    intros x Hne. symmetry. apply exU_other. exact Hne. }
  destruct (IH _ _ V1' H) as [V2 P2].
  split; [exact V2|]. eapply noNewPf_trans; [|exact P2]. cbn. apply noNewPf_set. cbn. discriminate.
Qed.

Definition NP (l : list tid) (ts : list task) : Prop :=
  forall id t, In id l -> find_task ts id = Some t -> forall w, t_state t <> Prefilled w.

Lemma lost_assigned_QI l : forall c running ret c' running' ret',
  QI (exL Ready ret none) [] c -> NP l (c_tasks c) -> lost_assigned c l running ret = Ok (c', running', ret') ->
  QI (exL Ready ret' none) [] c'.
Proof.
  induction l as [|id r IH]; cbn [lost_assigned]; intros c running ret c' running' ret' V Hnp H; [inversion H; subst; exact V|].
  apply bind_ok in H. destruct H as (t & Ht & H). apply get_task_find in Ht.
  pose proof (find_task_id _ _ _ Ht) as Hid.
  apply bind_ok in H. destruct H as ([[c1 t1] running1] & H1 & H).
  apply bind_ok in H. destruct H as ([qs rt] & Ha & H).
  assert (Hnpf : forall w, t_state t <> Prefilled w) by (eapply Hnp; [left; reflexivity | exact Ht]).
  (* the state before the re-queue *)
  assert (X : exists ex0, QI ex0 [] c1 /\ c_tasks c1 = c_tasks c /\ (forall y, y <> id -> ex0 y = exL Ready ret none y) /\
               exp_place ex0 (c_redirects c1) id (t_state t) <> Prefill /\ find_redirect (c_redirects c1) id = None /\
               t_id t1 = id /\ t_rq t1 = t_rq t /\ t_prio t1 = t_prio t /\ nat_place (c_redirects c1) id (t_state t1) = Ready /\
               (forall w, t_state t1 <> Prefilled w) /\ t_state t1 <> Finished).
  { assert (Hw0 : forall rn, @Ok (core * task * list tid) (c, with_state t (Waiting 0), rn) = Ok (c1, t1, running1) -> (forall w, t_state t <> Retracting w) ->
              exists ex0, QI ex0 [] c1 /\ c_tasks c1 = c_tasks c /\ (forall y, y <> id -> ex0 y = exL Ready ret none y) /\
               exp_place ex0 (c_redirects c1) id (t_state t) <> Prefill /\ find_redirect (c_redirects c1) id = None /\
               t_id t1 = id /\ t_rq t1 = t_rq t /\ t_prio t1 = t_prio t /\ nat_place (c_redirects c1) id (t_state t1) = Ready /\
               (forall w, t_state t1 <> Prefilled w) /\ t_state t1 <> Finished).
    { intros rn E Hnr. inversion E; subst c1 t1. exists (exL Ready ret none). split; [exact V | split; [reflexivity | split; [reflexivity|]]].
      split.
      - unfold exp_place, exL, none. destruct (tid_mem id ret); [discriminate|].
        destruct (t_state t) eqn:Est; cbn; try discriminate.
        + destruct (N.eqb unfinished_deps 0); discriminate.
        + exfalso. exact (Hnpf _ eq_refl).
        + exfalso. exact (Hnr _ eq_refl).
      - split; [exact (QV_no_redirect _ _ _ _ _ _ _ _ V Ht Hnr)|].
        cbn. repeat split; try exact Hid; try discriminate. }
    destruct (t_state t) as [| | |w1| | |] eqn:Est;
      try (eapply Hw0; [exact H1 | intros w0; discriminate]).
    destruct (find_redirect (c_redirects c) id) as [v|] eqn:Er; [|discriminate]. inversion H1; subst c1 t1 running1; clear H1.
    exists (exU (exL Ready ret none) id Nowhere).
    destruct (QV_drop_redirect _ _ _ _ _ _ _ _ _ V Ht Er) as [V1 Hnr].
    split; [exact V1|].
    cbn [c_tasks c_redirects with_redirects]. split; [reflexivity | split; [intros y Hne; apply exU_other; exact Hne|]].
    split; [unfold exp_place; rewrite exU_same; discriminate|]. split; [exact Hnr|].
    repeat split; try exact Hid. rewrite Est. cbn. rewrite Hnr. reflexivity.
    - intros w0. rewrite Est. discriminate.
    - rewrite Est. discriminate. }
  destruct X as (ex0 & V1 & T1 & Hex0 & Hpl & Hnr & Hi1 & Hr1 & Hp1 & Hn1 & Hnp1 & Hf1).
  eapply IH; [| |exact H].
  - qi_simpl. rewrite <- T1 in Ht.
    assert (V2 : QV (exL Ready rt (exR ex0 id)) [] (set_task (c_tasks c1) (with_inst t1 (t_inst t1 + 1))) qs (c_redirects c1) (c_rqs c1)).
    { eapply QV_requeue; [exact V1 | exact Ht | exact Hi1 | exact Hr1 | exact Hp1 | exact Hpl | exact Hnr | exact Hn1 | exact Hf1 | exact Ha]. }
    eapply (QV_requeue_norm ex0 _ _ _ _ _ id (with_inst t1 (t_inst t1 + 1)) ret rt); [exact V2 | exact Hex0 | | exact Hn1].
    rewrite find_set_task. cbn [t_id with_inst]. rewrite Hi1, (proj2 (tid_eqb_eq id id) eq_refl). reflexivity.
  - cbn [c_tasks with_queues upd_task with_tasks]. intros x tx Hx Hfx. rewrite find_set_task in Hfx. cbn [t_id with_inst] in Hfx. rewrite Hi1 in Hfx.
    destruct (tid_eqb x id); [inversion Hfx; subst tx; exact Hnp1|]. rewrite T1 in Hfx. eapply Hnp; [right; exact Hx | exact Hfx].
Qed.

Lemma lost_retracting_QI P l : forall s w s',
  QI (exL Ready P none) [] (core_of s) -> lost_retracting s w l = Ok s' -> QI (exL Ready P none) [] (core_of s').
Proof.
  induction l as [|id r IH]; cbn [lost_retracting]; intros s w s' V H; [inversion H; subst; exact V|].
  apply bind_ok in H. destruct H as (t & Ht & H). apply get_task_find in Ht.
  destruct (t_state t) as [| | |w1| | |] eqn:Est; try (eapply IH; eassumption).
  destruct (N.eqb w w1); [|eapply IH; eassumption].
  destruct (find_redirect (c_redirects (core_of s)) id) as [[target rv]|] eqn:Er.
  - apply bind_ok in H. destruct H as (s1 & Hs1 & H). eapply IH; [|exact H].
    rewrite (send_worker_core _ _ _ _ Hs1). qi_simpl.
    eapply QV_redirected; [exact V | exact Ht | exact Er | exact (find_task_id _ _ _ Ht) | reflexivity | reflexivity | reflexivity | discriminate].
  - eapply IH; [|exact H]. qi_simpl.
    eapply QV_task0; [exact V | exact Ht | exact (find_task_id _ _ _ Ht) | reflexivity | reflexivity | reflexivity | | |].
    + unfold exp_place. destruct (exL Ready P none id); [reflexivity|]. cbn [t_state with_state with_inst]. rewrite Est. cbn. rewrite Er. reflexivity.
    + intros v Hv. congruence.
    + cbn. discriminate.
Qed.

Lemma lost_fail_running_QI l : forall s reason s',
  HOK (hq_of s) -> CB s -> QI none [] (core_of s) -> lost_fail_running s reason l = Ok s' -> QI none [] (core_of s').
Proof.
  intros s reason s' Hok HC V H.
  refine (proj2 (proj2 (lost_fail_running_rel (fun a b => QP a -> QP b) (fun _ p => p) (fun _ _ _ f g p => g (f p)) _ _ l s reason s' H (conj Hok (conj HC V))))).
  - intros s0 id t Ef (Hok0 & HC0 & V0). split; [exact Hok0|]. split.
    + eapply CB_same; [| |exact HC0]; [|reflexivity].
      unfold K. cbn. apply (upd_task_frame (core_of s0) id t); [exact (cb_s _ HC0) | exact Ef | reflexivity | reflexivity].
    + qi_simpl. eapply QV_task0; [exact V0 | exact Ef | exact (find_task_id _ _ _ Ef) | reflexivity | reflexivity | reflexivity | reflexivity | |].
      * intros v Hv. destruct (qv_red _ _ _ _ _ _ V0 _ _ Hv) as (En & t0 & w & Hf0 & Hw). rewrite Ef in Hf0. inversion Hf0; subst t0. eauto.
      * intros Hfin. eapply qv_fin; eassumption.
  - intros s0 id k s1 _ Hf (Hok0 & HC0 & V0).
    split; [eapply task_failed_ok; eassumption | split; [eapply task_failed_CB; eassumption | eapply task_failed_QI; eassumption]].
Qed.

Lemma on_remove_worker_QI s w reason a p t s' :
  HOK (hq_of s) -> CB s -> asg_ok (core_of s) -> QI none [] (core_of s) ->
  on_remove_worker s w reason a p t = Ok s' -> QI none [] (core_of s').
Proof.
  intros Hok HC Hasg V H. unfold on_remove_worker in H.
  destruct (find_worker (c_workers (core_of s)) w) as [wk|] eqn:Ew; [|discriminate].
  apply bind_ok in H. destruct H as ([[c2 running] retracted] & Hr & H).
  (* the task keys (as in [on_remove_worker_CB]) *)
  assert (E2 : keys c2 = K s).
  { set (c0 := with_workers (core_of s) (del_worker (c_workers (core_of s)) w)) in *.
    assert (Hs0 : CS c0) by exact (cb_s _ HC).
    destruct (w_assign wk).
    - destruct (negb _); [discriminate|]. apply bind_ok in Hr. destruct Hr as (c1 & Hp & Hr).
      pose proof (lost_prefilled_frame _ _ _ Hs0 Hp) as E1.
      rewrite (lost_assigned_frame _ _ _ _ _ _ _ (CS_keys _ _ E1 Hs0) Hr). exact E1.
    - apply bind_ok in Hr. destruct Hr as (tk & Ht & Hr).
      destruct (t_state tk); try discriminate. destruct ws as [|w0 rest]; [discriminate|].
      destruct (N.eqb w w0).
      + apply bind_ok in Hr. destruct Hr as (c1 & Hc1 & Hr). apply bind_ok in Hr. destruct Hr as ([qs ret] & _ & Hr).
        inversion Hr; subst.
        pose proof (reset_mn_all_frame _ _ _ Hc1) as E1.
        pose proof (reset_mn_all_tasks _ _ _ Hc1) as T1.
        change (keys (upd_task c1 (with_inst (with_state tk (Waiting 0)) (t_inst tk + 1))) = K s).
        transitivity (keys c1); [|exact E1].
        apply (upd_task_frame c1 t0 tk); [eapply CS_keys; [exact E1 | exact Hs0] | rewrite T1; apply get_task_find; exact Ht | reflexivity | reflexivity].
      + inversion Hr; subst.
        apply (upd_task_frame c0 t0 tk); [exact Hs0 | apply get_task_find; exact Ht | reflexivity | reflexivity]. }
  (* the queue invariant up to the pending retractions *)
  assert (V2 : QI (exL Ready retracted none) [] c2).
  { set (c0 := with_workers (core_of s) (del_worker (c_workers (core_of s)) w)) in *.
    assert (V0 : QI none [] c0) by exact V.
    destruct (w_assign wk) as [asg pre fr|mt root] eqn:Ea.
    - destruct (perm_of_set a asg && perm_of_set p pre) eqn:Eperm; [|discriminate]. cbn [negb] in Hr.
      apply andb_true_iff in Eperm. destruct Eperm as [Pa _].
      apply bind_ok in Hr. destruct Hr as (c1 & Hp & Hr).
      destruct (lost_prefilled_QI _ _ _ V0 Hp) as [V1 P1].
      eapply (lost_assigned_QI a c1 [] []); [exact V1 | | exact Hr].
      intros id tk Hin Hf wp Hst. destruct (P1 _ _ _ Hf Hst) as (tk0 & Hf0 & Hst0).
      exact (Hasg wk asg pre fr id tk0 (proj1 (find_worker_some _ _ _ Ew)) Ea (perm_of_set_mem _ _ _ Pa Hin) Hf0 wp Hst0).
    - apply bind_ok in Hr. destruct Hr as (tk & Ht & Hr). apply get_task_find in Ht.
      destruct (t_state tk) as [| | | | |ws|] eqn:Est; try discriminate. destruct ws as [|w0 rest]; [discriminate|].
      destruct (N.eqb w w0).
      + apply bind_ok in Hr. destruct Hr as (c1 & Hc1 & Hr). apply bind_ok in Hr. destruct Hr as ([qs ret] & Ha & Hr).
        inversion Hr; subst c2 running retracted; clear Hr.
        pose proof (reset_mn_all_qsame _ _ _ Hc1) as Hs. pose proof (QI_same _ _ _ _ Hs V0) as V1. destruct Hs as (T1 & _ & R1 & _).
        rewrite <- T1 in Ht. qi_simpl.
        eapply QV_ext.
        * eapply QV_requeue; [exact V1 | exact Ht | exact (find_task_id _ _ _ Ht) | reflexivity | reflexivity | | | reflexivity | cbn; discriminate | exact Ha].
          -- unfold exp_place, none. rewrite Est. discriminate.
          -- eapply QV_no_redirect; [exact V1 | exact Ht | intros w1; congruence].
        * intros x tx _. unfold exL, exR, none. destruct (tid_mem x ret); [reflexivity|]. destruct (tid_eqb x mt); reflexivity.
      + inversion Hr; subst c2 running retracted; clear Hr. qi_simpl.
        eapply QV_task0; [exact V0 | exact Ht | exact (find_task_id _ _ _ Ht) | reflexivity | reflexivity | reflexivity | | |].
        * unfold exp_place, none. rewrite Est. reflexivity.
        * intros v Hv. exfalso. rewrite (QV_no_redirect _ _ _ _ _ _ _ _ V0 Ht) in Hv; [discriminate | intros w1; congruence].
        * cbn. discriminate. }
  destruct (negb (perm_of_set t _)); [discriminate|].
  apply bind_ok in H. destruct H as (s3 & H3 & H). apply bind_ok in H. destruct H as (s4 & H4 & H).
  apply bind_ok in H. destruct H as (s6 & H6 & H). apply bind_ok in H. destruct H as (s7 & H7 & H). inversion H; subst; clear H.
  match type of H3 with lost_retracting ?sx _ _ = _ => set (s2 := sx) in * end.
  (* CB along the way (as in [on_remove_worker_CB]) *)
  assert (HC2 : CB s2) by (eapply CB_same; [exact E2 | reflexivity | exact HC]).
  pose proof (lost_retracting_K _ _ _ _ (cb_s _ HC2) H3) as K3. pose proof (lost_retracting_same _ _ _ _ H3) as Q3.
  assert (HC3 : CB s3) by (eapply CB_same; [exact K3 | exact Q3 | exact HC2]).
  pose proof (process_retracted_K _ _ _ (cb_s _ HC3) H4) as K4. pose proof (process_retracted_hq _ _ _ H4) as Q4.
  assert (HC4 : CB s4) by (eapply CB_same; [exact K4 | exact Q4 | exact HC3]).
  assert (HC5 : CB (broadcast s4 (DLostWorker w))) by (eapply CB_same; [| |exact HC4]; reflexivity).
  destruct (process_worker_lost_active _ _ _ _ _ H6) as [C6 A6].
  assert (HC6 : CB s6) by (eapply CB_frame; [unfold K; rewrite C6; reflexivity | exact A6 | exact HC5]).
  assert (Hok6 : HOK (hq_of s6)).
  { eapply process_worker_lost_ok; [|exact H6]. change (HOK (hq_of s4)). unfold hq_same in Q3. rewrite Q4, Q3. exact Hok. }
  (* the queue invariant along the way *)
  assert (V3 : QI (exL Ready retracted none) [] (core_of s3)) by (eapply lost_retracting_QI; [|exact H3]; exact V2).
  pose proof (process_retracted_QI [] _ _ _ V3 H4) as V4.
  assert (V6 : QI none [] (core_of s6)) by (unfold core_same in C6; rewrite C6; exact V4).
  pose proof (lost_fail_running_QI _ _ _ _ Hok6 HC6 V6 H7) as V7.
  exact V7.
Qed.
