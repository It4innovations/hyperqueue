(** Worker-set invariant, part 5: the server side - worker registration and loss, new tasks, one
    scheduling round (map_sn / map_mn / proactive filling). *)
From HQ Require Import Base.Prelude Cluster.Types Cluster.Core Cluster.Reactor Cluster.Worker Cluster.Server Cluster.Sys Cluster.ProofsJob Cluster.ProofsMore Cluster.ProofsTerminal Cluster.ProofsStep Cluster.BijBase Cluster.BijCore Cluster.BijHq Cluster.BijSt Cluster.BijReact Cluster.InvWBase Cluster.InvWView Cluster.InvWCore Cluster.InvWReact.
From HQ Require Import Cluster.ModelFacts.
From HQ Require Import Cluster.ReactSplit.
From Coq Require Import ZArith Lia Sorting.Sorted.
Local Open Scope N_scope.

Arguments N.add : simpl never.
Arguments N.sub : simpl never.

Lemma on_new_worker_WI s rs g s' : WI (core_of s) -> on_new_worker s rs g = Ok s' -> WI (core_of s').
Proof.
  intros HW H. unfold on_new_worker in H. inversion H; subst s'. clear H.
  set (c := core_of s) in *. set (w := c_wcounter c + 1).
  change (WI (upd_worker (with_flag (with_wcounter c w) true) (mkSW w (Sn [] [] rs) rs [] g false))).
  assert (W1 : WI (with_flag (with_wcounter c w) true)).
  { refine (WIX_frame _ (with_wcounter c w) _ eq_refl eq_refl eq_refl eq_refl _). apply WIX_wcounter; [unfold w; lia | exact HW]. }
  eapply (C_wempty _ _ W1 w); [| cbn; lia | reflexivity | reflexivity].
  apply wfree_none. cbn [c_workers with_flag with_wcounter].
  destruct (find_worker (c_workers c) w) eqn:E; [|reflexivity]. exfalso.
  destruct HW as (_ & _ & _ & Hb). assert (w <= c_wcounter c) by (apply Hb; rewrite E; discriminate). unfold w in *. lia.
Qed.

Lemma tsorted_nodup l : tsorted l -> NoDup l.
Proof.
  unfold tsorted. induction l as [|h t IH]; intros Hs; [constructor|]. inversion Hs as [|? ? Hs' Hall]; subst.
  constructor; [|apply IH; exact Hs']. intros Hin. rewrite Forall_forall in Hall. exact (tlt_irrefl _ (Hall _ Hin)).
Qed.

Lemma perm_of_set_spec order ts : perm_of_set order ts = true -> tsorted ts ->
  NoDup order /\ forall x, In x order <-> tid_mem x ts = true.
Proof.
  unfold perm_of_set. intros Hp Hs. apply andb_true_iff in Hp. destruct Hp as [Hp H3]. apply andb_true_iff in Hp. destruct Hp as [H1 H2].
  apply N.eqb_eq in H1. apply Nat2N.inj in H1. rewrite forallb_forall in H2, H3.
  assert (I1 : incl ts order) by (intros x Hx; apply tid_mem_In; apply H3; exact Hx).
  split.
  - eapply NoDup_incl_NoDup; [apply tsorted_nodup; exact Hs | rewrite H1; apply le_n | exact I1].
  - intros x. split; [apply H2 | intros Hm; apply I1; apply tid_mem_In; exact Hm].
Qed.

(** on_remove_worker: the sets of the lost worker are emptied while the worker is already gone
    from the map; the invariant is kept for the core with a VIRTUAL copy of the worker. *)
Definition vcore (c : core) (wkv : sworker) : core := upd_worker c wkv.

Lemma vcore_find c wkv : find_worker (c_workers (vcore c wkv)) (w_id wkv) = Some wkv.
Proof. cbn [vcore c_workers upd_worker with_workers]. rewrite find_set_worker, N.eqb_refl. reflexivity. Qed.

Lemma vcore_transfer cl c' wkv wkv' :
  WI cl -> wsorted (c_workers c') -> w_id wkv' = w_id wkv ->
  c_tasks cl = c_tasks c' -> c_redirects cl = c_redirects c' -> c_wcounter cl = c_wcounter c' ->
  (forall x, find_worker (c_workers cl) x = if N.eqb x (w_id wkv) then Some wkv' else find_worker (c_workers c') x) ->
  WI (vcore c' wkv').
Proof.
  intros H Sw Hi Et Er Ec Ew. eapply (WIX_views _ _ _ H).
  - apply set_worker_sorted. exact Sw.
  - cbn [vcore c_redirects upd_worker with_workers]. rewrite <- Er. exact (WIX_sr _ _ H).
  - cbn [vcore c_wcounter upd_worker with_workers]. symmetry. exact Ec.
  - intros i. cbn [vcore c_tasks upd_worker with_workers]. rewrite Et. reflexivity.
  - intros x. cbn [vcore c_workers upd_worker with_workers]. rewrite find_set_worker, Hi, Ew. reflexivity.
  - intros i. cbn [vcore c_redirects upd_worker with_workers]. rewrite Er. reflexivity.
Qed.

Lemma lost_prefilled_V l : forall c wkv a p f c',
  wsorted (c_workers c) -> WI (vcore c wkv) -> w_assign wkv = Sn a p f -> NoDup l -> (forall i, In i l -> tid_mem i p = true) ->
  lost_prefilled c l = Ok c' ->
  c_workers c' = c_workers c /\
  exists wkv' p', w_id wkv' = w_id wkv /\ w_assign wkv' = Sn a p' f /\
    (forall i, tid_mem i p' = tid_mem i p && negb (tid_mem i l)) /\ WI (vcore c' wkv').
Proof.
  induction l as [|id r IH]; cbn [lost_prefilled]; intros c wkv a p f c' Sw HW Ea Hnd Hm H.
  - inversion H; subst. split; [reflexivity|]. exists wkv, p. split; [reflexivity|]. split; [exact Ea|]. split; [|exact HW].
    intros i. cbn [tid_mem negb]. rewrite andb_true_r. reflexivity.
  - inversion Hnd as [|? ? Hni Hnd']; subst.
    apply bind_ok in H. destruct H as (t & Ht & H). apply get_task_find in Ht.
    apply bind_ok in H. destruct H as (q & _ & H). apply bind_ok in H. destruct H as (q' & _ & H).
    destruct (find_task_some _ _ _ Ht) as [_ Hid].
    pose proof (vcore_find c wkv) as Hw.
    assert (Hmid : tid_mem id p = true) by (apply Hm; left; reflexivity).
    assert (Hp : pl (t_state t) = PP (w_id wkv)) by (eapply (WI_member_P (vcore c wkv)); [exact HW | exact Hw | exact Ea | exact Hmid | exact Ht]).
    set (wkv1 := with_assign wkv (Sn a (tid_remove id p) f)).
    assert (Hrm : remove_prefill_task wkv id = Ok wkv1) by (unfold remove_prefill_task; rewrite Ea, Hmid; reflexivity).
    pose proof (C_relP x0 _ HW id t (w_id wkv) wkv wkv1 eq_refl Ht Hp Hw Hrm) as W1.
    set (t' := with_state (with_inst t (t_inst t + 1)) (Waiting 0)) in *.
    pose proof (C_show _ _ W1 x0 id t' ltac:(xs) ltac:(xs) Hid (or_introl eq_refl)) as W2.
    match type of H with lost_prefilled ?cc r = _ => set (c1 := cc) in * end.
    assert (W3 : WI (vcore c1 wkv1)).
    { eapply (vcore_transfer _ c1 wkv wkv1 W2); [exact Sw | reflexivity | reflexivity | reflexivity | reflexivity |].
      intros x. cbn [vcore c_workers upd_task upd_worker with_tasks with_workers with_queues c1]. rewrite !find_set_worker. cbn [w_id wkv1 with_assign].
      destruct (N.eqb x (w_id wkv)); reflexivity. }
    destruct (wi_sets _ _ _ (proj1 (proj2 (proj2 HW))) (w_id wkv) wkv a p f Hw Ea) as [_ Sp].
    destruct (IH c1 wkv1 a (tid_remove id p) f c' Sw W3 eq_refl Hnd') as (Ew & wkv' & p' & Hi' & Ea' & Hm' & W').
    + intros i Hi. rewrite tid_mem_remove_other; [apply Hm; right; exact Hi|].
      apply tid_eqb_neq. intros E. subst i. contradiction.
    + exact H.
    + split; [exact Ew|]. exists wkv', p'. split; [exact Hi'|]. split; [exact Ea'|]. split; [|exact W'].
      intros i. rewrite Hm', (tid_mem_remove _ _ _ Sp). cbn [tid_mem]. destruct (tid_eqb i id), (tid_mem i p), (tid_mem i r); reflexivity.
Qed.

Lemma lost_assigned_V l : forall c wkv a p f running ret c' running' ret',
  wsorted (c_workers c) -> WI (vcore c wkv) -> w_assign wkv = Sn a p f -> NoDup l -> (forall i, In i l -> tid_mem i a = true) ->
  lost_assigned c l running ret = Ok (c', running', ret') ->
  c_workers c' = c_workers c /\
  exists wkv' a' f', w_id wkv' = w_id wkv /\ w_assign wkv' = Sn a' p f' /\
    (forall i, tid_mem i a' = tid_mem i a && negb (tid_mem i l)) /\ WI (vcore c' wkv').
Proof.
  induction l as [|id r IH]; cbn [lost_assigned]; intros c wkv a p f running ret c' running' ret' Sw HW Ea Hnd Hm H.
  - inversion H; subst. split; [reflexivity|]. exists wkv, a, f. split; [reflexivity|]. split; [exact Ea|]. split; [|exact HW].
    intros i. cbn [tid_mem negb]. rewrite andb_true_r. reflexivity.
  - inversion Hnd as [|? ? Hni Hnd']; subst.
    apply bind_ok in H. destruct H as (t & Ht & H). apply get_task_find in Ht.
    apply bind_ok in H. destruct H as ([[c1 t1] running1] & Hr1 & H).
    apply bind_ok in H. destruct H as ([qs rt] & _ & H).
    destruct (find_task_some _ _ _ Ht) as [_ Hid].
    pose proof (vcore_find c wkv) as Hw.
    assert (Hmid : tid_mem id a = true) by (apply Hm; left; reflexivity).
    set (wkv1 := with_assign wkv (Sn (tid_remove id a) p (res_add_cap f [] (w_res wkv)))).
    assert (Hrm : remove_sn_task wkv id [] = Ok wkv1) by (unfold remove_sn_task; rewrite Ea, Hmid; reflexivity).
    destruct (wi_sets _ _ _ (proj1 (proj2 (proj2 HW))) (w_id wkv) wkv a p f Hw Ea) as [Sa _].
    match type of H with lost_assigned ?cc r _ _ = _ => set (c2 := cc) in * end.
    assert (W3 : WI (vcore c2 wkv1) /\ c_workers c2 = c_workers c).
    { destruct (WI_member_A (vcore c wkv) _ _ _ _ _ id t HW Hw Ea Hmid Ht) as [Hp|[Hp (v & Hrd)]].
      - (* Assigned / Running on the lost worker *)
        pose proof (C_relA x0 _ HW id t (w_id wkv) wkv wkv1 [] eq_refl Ht Hp Hw Hrm) as W1.
        assert (E1 : c1 = c /\ t1 = with_state t (Waiting 0)).
        { destruct (t_state t); try discriminate; inversion Hr1; subst; auto. }
        destruct E1 as [-> ->].
        pose proof (C_show _ _ W1 x0 id (with_inst (with_state t (Waiting 0)) (t_inst (with_state t (Waiting 0)) + 1)) ltac:(xs) ltac:(xs) Hid (or_introl eq_refl)) as W2.
        split; [|reflexivity].
        eapply (vcore_transfer _ c2 wkv wkv1 W2); [exact Sw | reflexivity | reflexivity | reflexivity | reflexivity |].
        intros x. cbn [vcore c_workers upd_task upd_worker with_tasks with_workers with_queues c2]. rewrite !find_set_worker. cbn [w_id wkv1 with_assign].
        destruct (N.eqb x (w_id wkv)); reflexivity.
      - (* Retracting, redirected to the lost worker *)
        cbn [vcore c_redirects upd_worker with_workers] in Hrd.
        assert (E1 : c1 = with_redirects c (del_redirect (c_redirects c) id) /\ t1 = t).
        { destruct (t_state t); try discriminate. rewrite Hrd in Hr1. inversion Hr1; subst; auto. }
        destruct E1 as [-> ->].
        pose proof (C_relR x0 _ HW id (w_id wkv) v wkv wkv1 [] Hrd Hw Hrm) as W1.
        assert (W2 : WI (upd_task (upd_worker (with_redirects (vcore c wkv) (del_redirect (c_redirects (vcore c wkv)) id)) wkv1) (with_inst t (t_inst t + 1)))).
        { eapply C_same; [exact W1 | exact Ht | exact Hid | reflexivity]. }
        split; [|reflexivity].
        eapply (vcore_transfer _ c2 wkv wkv1 W2); [exact Sw | reflexivity | reflexivity | reflexivity | reflexivity |].
        intros x. cbn [vcore c_workers upd_task upd_worker with_tasks with_workers with_queues with_redirects c2]. rewrite !find_set_worker. cbn [w_id wkv1 with_assign].
        destruct (N.eqb x (w_id wkv)); reflexivity. }
    destruct W3 as [W3 Ew2].
    assert (Sw2 : wsorted (c_workers c2)) by (rewrite Ew2; exact Sw).
    destruct (IH c2 wkv1 (tid_remove id a) p (res_add_cap f [] (w_res wkv)) running1 (ret ++ rt) c' running' ret' Sw2 W3 eq_refl Hnd') as (Ew & wkv' & a' & f' & Hi' & Ea' & Hm' & W').
    + intros i Hi. rewrite tid_mem_remove_other; [apply Hm; right; exact Hi|].
      apply tid_eqb_neq. intros E. subst i. contradiction.
    + exact H.
    + split; [rewrite Ew; exact Ew2|]. exists wkv', a', f'. split; [exact Hi'|]. split; [exact Ea'|]. split; [|exact W'].
      intros i. rewrite Hm', (tid_mem_remove _ _ _ Sa). cbn [tid_mem]. destruct (tid_eqb i id), (tid_mem i a), (tid_mem i r); reflexivity.
Qed.

Lemma lost_retracting_WI l : forall s w s', WI (core_of s) -> lost_retracting s w l = Ok s' -> WI (core_of s').
Proof.
  induction l as [|id r IH]; cbn [lost_retracting]; intros s w s' HW H; [inversion H; subst; exact HW|].
  apply bind_ok in H. destruct H as (t & Ht & H). apply get_task_find in Ht.
  destruct (find_task_some _ _ _ Ht) as [_ Hid].
  destruct (t_state t) as [n|w1 rv1|w1|w1|w1 rv1|wsx|] eqn:Est; try (eapply IH; eassumption).
  destruct (N.eqb w w1); [|eapply IH; eassumption].
  cbv zeta in H.
  destruct (find_redirect (c_redirects (core_of s)) id) as [[target rv]|] eqn:Er.
  - apply bind_ok in H. destruct H as (s1 & Hs1 & H). eapply IH; [|exact H].
    rewrite (send_worker_core _ _ _ _ Hs1).
    change (WI (upd_task (with_redirects (core_of s) (del_redirect (c_redirects (core_of s)) id)) (with_state (with_inst t (t_inst t + 1)) (Assigned target rv)))).
    eapply C_redirect_done; [exact HW | exact Er | exact Hid | reflexivity].
  - eapply IH; [|exact H].
    change (WI (upd_task (core_of s) (with_state (with_inst t (t_inst t + 1)) (Waiting 0)))).
    eapply C_neutral; [exact HW | exact Ht | exact Hid | right; split; [rewrite Est; reflexivity | exact Er] | left; reflexivity].
Qed.

Lemma register_deps_WI deps : forall c id kept count c' kept' count',
  WI c -> register_deps c id deps kept count = (c', kept', count') -> WI c'.
Proof.
  induction deps as [|d r IH]; cbn [register_deps]; intros c id kept count c' kept' count' HW H; [inversion H; subst; exact HW|].
  destruct (find_task (c_tasks c) d) as [dep|] eqn:Ef; [|eapply IH; eassumption].
  destruct (find_task_some _ _ _ Ef) as [_ Hid].
  eapply IH; [|exact H]. eapply C_same; [exact HW | exact Ef | exact Hid | reflexivity].
Qed.

Lemma add_new_tasks_WI ts : forall c ret c' ret', WI c -> add_new_tasks c ts ret = Ok (c', ret') -> WI c'.
Proof.
  induction ts as [|t r IH]; cbn [add_new_tasks]; intros c ret c' ret' HW H; [inversion H; subst; exact HW|].
  destruct (register_deps c (t_id t) (t_deps t) [] 0) as [[c1 kept] count] eqn:Er.
  pose proof (register_deps_WI _ _ _ _ _ _ _ _ HW Er) as W1.
  apply bind_ok in H. destruct H as ([c2 rt] & H2 & H).
  assert (W2 : WI c2).
  { destruct (N.eqb count 0); [|inversion H2; subst; exact W1].
    apply bind_ok in H2. destruct H2 as ([qs rt'] & _ & H2). inversion H2; subst. exact W1. }
  destruct (find_task (c_tasks c2) (t_id t)) eqn:Ef; [discriminate|].
  eapply IH; [|exact H]. eapply C_new; [exact W2 | exact Ef | reflexivity | reflexivity].
Qed.

Lemma on_new_tasks_WI s ts s' : WI (core_of s) -> on_new_tasks s ts = Ok s' -> WI (core_of s').
Proof.
  intros HW H. unfold on_new_tasks in H. destruct ts as [|t0 tr] eqn:Et; [inversion H; subst; exact HW|]. rewrite <- Et in *. clear Et.
  apply bind_ok in H. destruct H as ([c' retracted] & Ha & H). apply bind_ok in H. destruct H as (s1 & Hr & H). inversion H; subst s'.
  pose proof (add_new_tasks_WI _ _ _ _ _ HW Ha) as W1.
  pose proof (process_retracted_WI (st_core s c') _ _ W1 Hr) as W2.
  refine (WIX_frame _ (core_of s1) _ eq_refl eq_refl eq_refl eq_refl _). exact W2.
Qed.

Lemma find_set_task_same ts x : find_task (set_task ts x) (t_id x) = Some x.
Proof. rewrite find_set_task, tid_eqb_refl. reflexivity. Qed.

Lemma map_one_WI c m id w v rqres c' m' : WI c -> map_one c m id w v rqres = Ok (c', m') -> WI c'.
Proof.
  intros HW H. unfold map_one in H.
  apply bind_ok in H. destruct H as (wk & Hw & H). apply get_worker_find in Hw.
  apply bind_ok in H. destruct H as (wk' & Hins & H).
  apply bind_ok in H. destruct H as (t & Ht & H). apply get_task_find in Ht. cbn [c_tasks upd_worker with_workers] in Ht.
  destruct (find_task_some _ _ _ Ht) as [_ Hid].
  destruct (find_worker_some _ _ _ Hw) as [_ Hwi].
  destruct (insert_sn_task_spec _ _ _ _ Hins) as (Hwi' & _).
  pose proof (WIX_sw _ _ HW) as Sw. pose proof (WIX_sr _ _ HW) as Sr.
  destruct (t_state t) as [n|w1 rv1|old|old|w1 rv1|wsx|] eqn:Est; try discriminate.
  - (* Waiting *)
    inversion H; subst c' m'.
    assert (W1 : WIX (xadd x0 id) c) by (eapply C_hide; [exact HW | exact Ht | left; rewrite Est; reflexivity]).
    exact (C_putA _ _ W1 x0 id (with_state t (Assigned w v)) w wk wk' rqres ltac:(xs) ltac:(xs) Hid eq_refl Hw Hins).
  - (* Prefilled on [old] *)
    cbn [c_workers upd_worker with_workers] in H.
    destruct (find_worker (set_worker (c_workers c) wk') old) as [wo|] eqn:Hwo; [|discriminate].
    apply bind_ok in H. destruct H as (wo' & Hrm & H).
    cbn [c_redirects upd_worker with_workers] in H.
    destruct (find_redirect (c_redirects c) id) eqn:Er; [discriminate|]. inversion H; subst c' m'. clear H.
    set (x := with_state t (Retracting old)).
    assert (Hpp : pl (t_state t) = PP old) by (rewrite Est; reflexivity).
    destruct (insert_sn_exact _ _ _ _ Hins) as (a & p & f & Ea & Hna & Ewk').
    destruct (remove_prefill_exact _ _ _ Hrm) as (a2 & p2 & f2 & Ea2 & Hm2 & Ewo').
    rewrite find_set_worker, Hwi' , Hwi in Hwo.
    destruct (N.eqb old w) eqn:Eow.
    + (* the same worker *)
      apply N.eqb_eq in Eow. subst old. inversion Hwo; subst wo. clear Hwo.
      rewrite Ewk' in Ea2. cbn [w_assign with_assign] in Ea2. inversion Ea2; subst a2 p2 f2. clear Ea2.
      set (woc' := with_assign wk (Sn a (tid_remove id p) f)).
      assert (Hrmc : remove_prefill_task wk id = Ok woc') by (unfold remove_prefill_task; rewrite Ea, Hm2; reflexivity).
      pose proof (C_relP x0 c HW id t w wk woc' eq_refl Ht Hpp Hw Hrmc) as W1.
      pose proof (C_show _ _ W1 x0 id x ltac:(xs) ltac:(xs) Hid (or_intror eq_refl)) as W2.
      set (wkB' := with_assign woc' (Sn (tid_insert id a) (tid_remove id p) (res_sub f rqres))).
      assert (HinsB : insert_sn_task woc' id rqres = Ok wkB') by (unfold insert_sn_task; cbn [w_assign woc' with_assign]; rewrite Hna; reflexivity).
      assert (HwB : find_worker (c_workers (upd_task (upd_worker c woc') x)) w = Some woc').
      { cbn [c_workers upd_task upd_worker with_tasks with_workers]. rewrite find_set_worker. cbn [w_id woc' with_assign]. rewrite Hwi, N.eqb_refl. reflexivity. }
      assert (HtB : find_task (c_tasks (upd_task (upd_worker c woc') x)) id = Some x).
      { cbn [c_tasks upd_task upd_worker with_tasks with_workers]. rewrite <- Hid. apply (find_set_task_same (c_tasks c) x). }
      pose proof (C_putR x0 _ W2 id x w v woc' wkB' rqres eq_refl HtB eq_refl Er HwB HinsB) as W3.
      eapply (WIX_views _ _ _ W3).
      * cbn [c_workers upd_task upd_worker with_tasks with_workers with_redirects]. apply set_worker_sorted, set_worker_sorted. exact Sw.
      * cbn [c_redirects upd_task upd_worker with_tasks with_workers with_redirects]. apply set_redirect_sorted. exact Sr.
      * reflexivity.
      * intros i. reflexivity.
      * intros y. cbn [c_workers upd_task upd_worker with_tasks with_workers with_redirects]. rewrite !find_set_worker.
        rewrite Ewo', Ewk'. cbn [w_id with_assign wkB' woc']. destruct (N.eqb y (w_id wk)); reflexivity.
      * intros i. reflexivity.
    + (* another worker *)
      pose proof (C_relP x0 c HW id t old wo wo' eq_refl Ht Hpp Hwo Hrm) as W1.
      pose proof (C_show _ _ W1 x0 id x ltac:(xs) ltac:(xs) Hid (or_intror eq_refl)) as W2.
      destruct (find_worker_some _ _ _ Hwo) as [_ Hwoi]. destruct (remove_prefill_task_spec _ _ _ Hrm) as (Hwoi' & _).
      assert (HwB : find_worker (c_workers (upd_task (upd_worker c wo') x)) w = Some wk).
      { cbn [c_workers upd_task upd_worker with_tasks with_workers]. rewrite find_set_worker, Hwoi', Hwoi, N.eqb_sym, Eow. exact Hw. }
      assert (HtB : find_task (c_tasks (upd_task (upd_worker c wo') x)) id = Some x).
      { cbn [c_tasks upd_task upd_worker with_tasks with_workers]. rewrite <- Hid. apply (find_set_task_same (c_tasks c) x). }
      pose proof (C_putR x0 _ W2 id x w v wk wk' rqres eq_refl HtB eq_refl Er HwB Hins) as W3.
      eapply (WIX_views _ _ _ W3).
      * cbn [c_workers upd_task upd_worker with_tasks with_workers with_redirects]. apply set_worker_sorted, set_worker_sorted. exact Sw.
      * cbn [c_redirects upd_task upd_worker with_tasks with_workers with_redirects]. apply set_redirect_sorted. exact Sr.
      * reflexivity.
      * intros i. reflexivity.
      * intros y. cbn [c_workers upd_task upd_worker with_tasks with_workers with_redirects]. rewrite !find_set_worker, Hwoi', Hwoi, Hwi', Hwi.
        destruct (N.eqb y old) eqn:E1, (N.eqb y w) eqn:E2; try reflexivity.
        apply N.eqb_eq in E1, E2. rewrite E1 in E2. rewrite E2, N.eqb_refl in Eow. discriminate.
      * intros i. reflexivity.
  - (* Retracting *)
    cbn [c_redirects upd_worker with_workers] in H.
    assert (Hpr : pl (t_state t) = PR) by (rewrite Est; reflexivity).
    destruct (find_redirect (c_redirects c) id) as [[ot v_old]|] eqn:Er.
    + apply bind_ok in H. destruct H as (wo & Hwo & H). apply get_worker_find in Hwo.
      apply bind_ok in H. destruct H as (rq & _ & H). apply bind_ok in H. destruct H as (wo' & Hrm & H). inversion H; subst c' m'. clear H.
      cbn [c_workers upd_worker with_workers with_redirects] in Hwo.
      destruct (insert_sn_exact _ _ _ _ Hins) as (a & p & f & Ea & Hna & _).
      assert (Eow : N.eqb ot w = false).
      { destruct HW as (_ & _ & Hv & _). pose proof (wi_A _ _ _ Hv w id) as X.
        unfold inA, wantA, hv, x0 in X. rewrite Hw, Ea, Hna, (TV_find _ _ _ Ht) in X. cbn [plo] in X. rewrite Hpr, Er in X. symmetry. exact X. }
      rewrite find_set_worker, Hwi', Hwi, Eow in Hwo.
      destruct (find_worker_some _ _ _ Hwo) as [_ Hwoi]. destruct (remove_sn_task_spec _ _ _ _ Hrm) as (Hwoi' & _).
      pose proof (C_relR x0 c HW id ot v_old wo wo' (rq_res rq) Er Hwo Hrm) as W1.
      set (cA := upd_worker (with_redirects c (del_redirect (c_redirects c) id)) wo') in *.
      assert (HwA : find_worker (c_workers cA) w = Some wk).
      { cbn [cA c_workers upd_worker with_workers with_redirects]. rewrite find_set_worker, Hwoi', Hwoi, N.eqb_sym, Eow. exact Hw. }
      assert (ErA : find_redirect (c_redirects cA) id = None).
      { cbn [cA c_redirects upd_worker with_workers with_redirects]. rewrite find_del_redirect by exact Sr. rewrite tid_eqb_refl. reflexivity. }
      pose proof (C_putR x0 cA W1 id t w v wk wk' rqres eq_refl Ht Hpr ErA HwA Hins) as W2.
      eapply (WIX_views _ _ _ W2).
      * cbn [c_workers upd_worker with_workers with_redirects]. apply set_worker_sorted, set_worker_sorted. exact Sw.
      * cbn [c_redirects upd_worker with_workers with_redirects]. apply set_redirect_sorted. exact Sr.
      * reflexivity.
      * intros i. reflexivity.
      * intros y. cbn [cA c_workers upd_worker with_workers with_redirects]. rewrite !find_set_worker, Hwoi', Hwoi, Hwi', Hwi.
        destruct (N.eqb y ot) eqn:E1, (N.eqb y w) eqn:E2; try reflexivity.
        apply N.eqb_eq in E1, E2. rewrite E1 in E2. rewrite E2, N.eqb_refl in Eow. discriminate.
      * intros i. cbn [cA c_redirects upd_worker with_workers with_redirects]. rewrite !find_set_redirect, find_del_redirect by exact Sr.
        destruct (tid_eqb i id); reflexivity.
    + inversion H; subst c' m'.
      exact (C_putR x0 c HW id t w v wk wk' rqres eq_refl Ht Hpr Er Hw Hins).
Qed.

Lemma map_sn_WI sol l : forall c m c' m', WI c -> map_sn c m sol l = Ok (c', m') -> WI c'.
Proof.
  intros c m c' m' HW H.
  exact (map_sn_lift (fun c c' => WI c -> WI c') (fun _ X => X) (fun _ _ _ A B X => B (A X)) (fun _ _ X => X)
           (fun _ _ _ _ _ _ _ _ H1 X => map_one_WI _ _ _ _ _ _ _ _ X H1) sol l c m c' m' H HW).
Qed.

Lemma map_mn_sets_WI sets : forall c rq mn c' mn', WI c -> map_mn_sets c rq mn sets = Ok (c', mn') -> WI c'.
Proof.
  induction sets as [|ws r IH]; cbn [map_mn_sets]; intros c rq mn c' mn' HW H; [inversion H; subst; exact HW|].
  apply bind_ok in H. destruct H as (q & _ & H). destruct (q_take_one q) as [[id q']|]; [|discriminate].
  apply bind_ok in H. destruct H as (c2 & H2 & H). apply bind_ok in H. destruct H as (t & Ht & H). apply get_task_find in Ht.
  destruct (t_state t) as [n| | | | | |] eqn:Est; try discriminate. destruct n; [|discriminate].
  destruct (set_mn_workers_spec _ _ _ _ _ H2) as (T2 & R2 & C2 & S2 & F1 & F2 & F3).
  cbn [c_tasks c_redirects c_wcounter c_workers with_queues] in T2, R2, C2, S2, F1, F2, F3.
  rewrite T2 in Ht. destruct (find_task_some _ _ _ Ht) as [_ Hid].
  eapply IH; [|exact H].
  assert (W1 : WIX (xadd x0 id) c) by (eapply C_hide; [exact HW | exact Ht | left; rewrite Est; reflexivity]).
  eapply (C_putM _ _ W1 x0 id (with_state t (RunningMN ws)) ws c2); [xs | xs | exact Hid | reflexivity | exact T2 | exact R2 | exact C2
    | apply S2; exact (WIX_sw _ _ HW) | exact F1 | exact F2 | exact F3].
Qed.

Lemma map_mn_WI l : forall c mn c' mn', WI c -> map_mn c mn l = Ok (c', mn') -> WI c'.
Proof.
  induction l as [|[[rq v] sets] r IH]; cbn [map_mn]; intros c mn c' mn' HW H; [inversion H; subst; exact HW|].
  apply bind_ok in H. destruct H as ([c1 mn1] & H1 & H).
  eapply IH; [eapply map_mn_sets_WI; [exact HW | exact H1] | exact H].
Qed.

Lemma prefill_mark_WI l : forall c w c', WI c -> prefill_mark c w l = Ok c' -> WI c'.
Proof.
  induction l as [|id r IH]; cbn [prefill_mark]; intros c w c' HW H; [inversion H; subst; exact HW|].
  apply bind_ok in H. destruct H as (t & Ht & H). apply get_task_find in Ht.
  destruct (find_task_some _ _ _ Ht) as [_ Hid].
  destruct (negb (is_waiting t)) eqn:Ew; [discriminate|]. apply negb_false_iff in Ew.
  apply bind_ok in H. destruct H as (wk & Hw & H). apply get_worker_find in Hw.
  apply bind_ok in H. destruct H as (wk' & Hins & H).
  eapply IH; [|exact H].
  assert (Hp : pl (t_state t) = PN) by (unfold is_waiting in Ew; destruct (t_state t); try discriminate; reflexivity).
  assert (W1 : WIX (xadd x0 id) c) by (eapply C_hide; [exact HW | exact Ht | left; exact Hp]).
  exact (C_putP _ _ W1 x0 id (with_state t (Prefilled w)) w wk wk' ltac:(xs) ltac:(xs) Hid eq_refl Hw Hins).
Qed.

Lemma prefill_workers_WI ws : forall c m qi psize c' m', WI c -> prefill_workers c m qi psize ws = Ok (c', m') -> WI c'.
Proof.
  intros c m qi psize c' m' HW H.
  exact (prefill_workers_lift (fun c c' => WI c -> WI c') (fun _ X => X) (fun _ _ _ A B X => B (A X)) (fun _ _ X => X)
           (fun _ _ _ _ H1 X => prefill_mark_WI _ _ _ _ X H1) ws c m qi psize c' m' H HW).
Qed.

Lemma prefill_queues_WI n : forall c m worder qi top c' m',
  WI c -> prefill_queues c m worder qi n top = Ok (c', m') -> WI c'.
Proof.
  intros c m worder qi top c' m' HW H.
  exact (prefill_queues_lift (fun c c' => WI c -> WI c') (fun _ X => X) (fun _ _ _ A B X => B (A X)) (fun _ _ X => X)
           (fun _ _ _ _ H1 X => prefill_mark_WI _ _ _ _ X H1) n c m worder qi top c' m' H HW).
Qed.

Lemma run_scheduling_WI s sol s' : WI (core_of s) -> run_scheduling s sol = Ok s' -> WI (core_of s').
Proof.
  unfold run_scheduling. intros HW H. destruct (negb (perm_of_set _ _)); [discriminate|].
  apply bind_ok in H. destruct H as ([c1 m1] & H1 & H).
  apply bind_ok in H. destruct H as ([c2 mn] & H2 & H).
  apply bind_ok in H. destruct H as ([c3 m3] & H3 & H).
  apply bind_ok in H. destruct H as (s1 & H4 & H).
  apply bind_ok in H. destruct H as (s2 & H5 & H). inversion H; subst.
  pose proof (map_sn_WI _ _ _ _ _ _ HW H1) as W1.
  pose proof (map_mn_WI _ _ _ _ _ W1 H2) as W2.
  assert (W3 : WI c3).
  { destruct (queues_top_priority (c_queues c2)); [|inversion H3; subst; exact W2].
    eapply prefill_queues_WI; [exact W2 | exact H3]. }
  refine (WIX_frame _ (core_of s2) _ eq_refl eq_refl eq_refl eq_refl _).
  rewrite (send_mn_core _ _ _ H5), (send_mapping_core _ _ _ H4). exact W3.
Qed.
