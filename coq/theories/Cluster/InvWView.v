(** Worker-set invariant, part 2: the invariant on VIEWS.  The task map is seen through the
    function id -> state, the worker map through id -> worker, the redirect map through id -> target;
    the invariant says that membership in a worker's sets (computed from the worker view) equals
    what the task states ask for (computed from the task and redirect views). *)
From HQ Require Import Base.Prelude Cluster.Types Cluster.Core Cluster.Reactor Cluster.Worker Cluster.Server Cluster.Sys Cluster.ProofsJob Cluster.ProofsMore Cluster.ProofsStep Cluster.BijBase Cluster.BijCore Cluster.InvWBase.
From HQ Require Import Cluster.ModelFacts.
From Coq Require Import ZArith Lia Sorting.Sorted.
Local Open Scope N_scope.

Arguments N.add : simpl never.
Arguments N.sub : simpl never.

Definition tview := tid -> option tstate.
Definition wview := wid -> option sworker.
Definition rview := tid -> option (wid * N).

Definition tset (tv : tview) (id : tid) (s : option tstate) : tview := fun x => if tid_eqb x id then s else tv x.
Definition wset (wv : wview) (w : wid) (k : option sworker) : wview := fun x => if N.eqb x w then k else wv x.
Definition rset (rv : rview) (id : tid) (v : option (wid * N)) : rview := fun x => if tid_eqb x id then v else rv x.

Inductive place := PN | PA (w : wid) | PP (w : wid) | PR | PM (ws : list wid).
Definition pl (s : tstate) : place :=
  match s with
  | Waiting _ | Finished => PN
  | Assigned w _ | Running w _ => PA w
  | Prefilled w => PP w
  | Retracting _ => PR
  | RunningMN ws => PM ws
  end.
Definition plo (o : option tstate) : place := match o with Some s => pl s | None => PN end.

Definition inA (wv : wview) (w : wid) (id : tid) : bool :=
  match wv w with Some wk => match w_assign wk with Sn a _ _ => tid_mem id a | Mn _ _ => false end | None => false end.
Definition inP (wv : wview) (w : wid) (id : tid) : bool :=
  match wv w with Some wk => match w_assign wk with Sn _ p _ => tid_mem id p | Mn _ _ => false end | None => false end.
Definition inM (wv : wview) (w : wid) (id : tid) : bool :=
  match wv w with Some wk => match w_assign wk with Mn t _ => tid_eqb t id | Sn _ _ _ => false end | None => false end.

Definition wantA (tv : tview) (rv : rview) (w : wid) (id : tid) : bool :=
  match plo (tv id) with
  | PA w' => N.eqb w' w
  | PR => match rv id with Some (tg, _) => N.eqb tg w | None => false end
  | _ => false
  end.
Definition wantP (tv : tview) (w : wid) (id : tid) : bool :=
  match plo (tv id) with PP w' => N.eqb w' w | _ => false end.
Definition wantM (tv : tview) (w : wid) (id : tid) : bool :=
  match plo (tv id) with PM ws => n_mem w ws | _ => false end.

Definition sets_ok (k : option sworker) : Prop :=
  forall wk a p f, k = Some wk -> w_assign wk = Sn a p f -> tsorted a /\ tsorted p.

Record WIv (tv : tview) (wv : wview) (rv : rview) : Prop := mkWIv {
  wi_sets : forall w, sets_ok (wv w);
  wi_A : forall w id, inA wv w id = wantA tv rv w id;
  wi_P : forall w id, inP wv w id = wantP tv w id;
  wi_M : forall w id, inM wv w id = wantM tv w id;
  wi_R : forall id, rv id <> None -> plo (tv id) = PR
}.

Lemma WIv_ext tv wv rv tv' wv' rv' :
  (forall id, plo (tv' id) = plo (tv id)) -> (forall w, wv' w = wv w) -> (forall id, rv' id = rv id) ->
  WIv tv wv rv -> WIv tv' wv' rv'.
Proof.
  intros Et Ew Er [S A P M R]. constructor.
  - intros w. rewrite Ew. apply S.
  - intros w id. unfold inA, wantA. rewrite Ew, Et, Er. apply A.
  - intros w id. unfold inP, wantP. rewrite Ew, Et. apply P.
  - intros w id. unfold inM, wantM. rewrite Ew, Et. apply M.
  - intros id. rewrite Er, Et. apply R.
Qed.

Lemma wi_R_none tv wv rv id : WIv tv wv rv -> plo (tv id) <> PR -> rv id = None.
Proof. intros H Hn. destruct (rv id) eqn:E; [|reflexivity]. exfalso. apply Hn. apply (wi_R _ _ _ H). congruence. Qed.

Lemma V_point tv wv rv id s w k r :
  WIv tv wv rv ->
  sets_ok k ->
  (forall id', tid_eqb id' id = false ->
     inA (wset wv w k) w id' = inA wv w id' /\ inP (wset wv w k) w id' = inP wv w id' /\ inM (wset wv w k) w id' = inM wv w id') ->
  (forall w', inA (wset wv w k) w' id = wantA (tset tv id s) (rset rv id r) w' id /\
              inP (wset wv w k) w' id = wantP (tset tv id s) w' id /\
              inM (wset wv w k) w' id = wantM (tset tv id s) w' id) ->
  (r <> None -> plo s = PR) ->
  WIv (tset tv id s) (wset wv w k) (rset rv id r).
Proof.
  intros H Hk Hoth Hat Hr.
  assert (Hw : forall w' id', N.eqb w' w = false ->
            inA (wset wv w k) w' id' = inA wv w' id' /\ inP (wset wv w k) w' id' = inP wv w' id' /\ inM (wset wv w k) w' id' = inM wv w' id').
  { intros w' id' E. unfold inA, inP, inM, wset. rewrite E. auto. }
  assert (Hin : forall w' id', tid_eqb id' id = false ->
            inA (wset wv w k) w' id' = inA wv w' id' /\ inP (wset wv w k) w' id' = inP wv w' id' /\ inM (wset wv w k) w' id' = inM wv w' id').
  { intros w' id' E. destruct (N.eqb w' w) eqn:Ew; [apply N.eqb_eq in Ew; subst w'; apply Hoth; exact E | apply Hw; exact Ew]. }
  constructor.
  - intros w'. unfold wset. destruct (N.eqb w' w); [exact Hk | apply (wi_sets _ _ _ H)].
  - intros w' id'. destruct (tid_eqb id' id) eqn:E.
    + apply tid_eqb_eq in E. subst id'. apply Hat.
    + rewrite (proj1 (Hin w' id' E)). unfold wantA, tset, rset. rewrite E. apply (wi_A _ _ _ H).
  - intros w' id'. destruct (tid_eqb id' id) eqn:E.
    + apply tid_eqb_eq in E. subst id'. apply Hat.
    + rewrite (proj1 (proj2 (Hin w' id' E))). unfold wantP, tset. rewrite E. apply (wi_P _ _ _ H).
  - intros w' id'. destruct (tid_eqb id' id) eqn:E.
    + apply tid_eqb_eq in E. subst id'. apply Hat.
    + rewrite (proj2 (proj2 (Hin w' id' E))). unfold wantM, tset. rewrite E. apply (wi_M _ _ _ H).
  - intros id'. unfold rset, tset. destruct (tid_eqb id' id); [exact Hr | apply (wi_R _ _ _ H)].
Qed.

Lemma wset_same wv w : forall x, wset wv w (wv w) x = wv x.
Proof. intros x. unfold wset. destruct (N.eqb x w) eqn:E; [apply N.eqb_eq in E; subst; reflexivity | reflexivity]. Qed.
Lemma rset_same rv id : forall x, rset rv id (rv id) x = rv x.
Proof. intros x. unfold rset. destruct (tid_eqb x id) eqn:E; [apply tid_eqb_eq in E; subst; reflexivity | reflexivity]. Qed.
Lemma tset_same tv id : forall x, tset tv id (tv id) x = tv x.
Proof. intros x. unfold tset. destruct (tid_eqb x id) eqn:E; [apply tid_eqb_eq in E; subst; reflexivity | reflexivity]. Qed.

Lemma V_tpoint tv wv rv id s r :
  WIv tv wv rv ->
  (forall w', inA wv w' id = wantA (tset tv id s) (rset rv id r) w' id /\
              inP wv w' id = wantP (tset tv id s) w' id /\
              inM wv w' id = wantM (tset tv id s) w' id) ->
  (r <> None -> plo s = PR) ->
  WIv (tset tv id s) wv (rset rv id r).
Proof.
  intros H Hat Hr.
  eapply (WIv_ext (tset tv id s) (wset wv 0 (wv 0)) (rset rv id r)); [reflexivity | intros w; symmetry; apply wset_same | reflexivity |].
  assert (E : forall w' x, inA (wset wv 0 (wv 0)) w' x = inA wv w' x /\ inP (wset wv 0 (wv 0)) w' x = inP wv w' x /\ inM (wset wv 0 (wv 0)) w' x = inM wv w' x).
  { intros w' x. unfold inA, inP, inM. rewrite wset_same. auto. }
  apply V_point; [exact H | apply (wi_sets _ _ _ H) | intros id' _; apply E | | exact Hr].
  intros w'. destruct (E w' id) as (E1 & E2 & E3). rewrite E1, E2, E3. apply Hat.
Qed.

Lemma V_wpoint tv wv rv w k :
  WIv tv wv rv -> sets_ok k ->
  (forall id, inA (wset wv w k) w id = inA wv w id /\ inP (wset wv w k) w id = inP wv w id /\ inM (wset wv w k) w id = inM wv w id) ->
  WIv tv (wset wv w k) rv.
Proof.
  intros H Hk Hs. constructor.
  - intros w'. unfold wset. destruct (N.eqb w' w); [exact Hk | apply (wi_sets _ _ _ H)].
  - intros w' id. rewrite <- (wi_A _ _ _ H). destruct (N.eqb w' w) eqn:E; [apply N.eqb_eq in E; subst; apply Hs | unfold inA, wset; rewrite E; reflexivity].
  - intros w' id. rewrite <- (wi_P _ _ _ H). destruct (N.eqb w' w) eqn:E; [apply N.eqb_eq in E; subst; apply Hs | unfold inP, wset; rewrite E; reflexivity].
  - intros w' id. rewrite <- (wi_M _ _ _ H). destruct (N.eqb w' w) eqn:E; [apply N.eqb_eq in E; subst; apply Hs | unfold inM, wset; rewrite E; reflexivity].
  - apply (wi_R _ _ _ H).
Qed.

Lemma V_same tv wv rv id s : WIv tv wv rv -> plo s = plo (tv id) -> WIv (tset tv id s) wv rv.
Proof.
  intros H E. eapply WIv_ext; [| reflexivity | reflexivity | exact H].
  intros x. unfold tset. destruct (tid_eqb x id) eqn:Ex; [apply tid_eqb_eq in Ex; subst; exact E | reflexivity].
Qed.

(** "wantless": the task is in no worker set. *)
Definition wl (tv : tview) (rv : rview) (id : tid) : Prop := plo (tv id) = PN \/ (plo (tv id) = PR /\ rv id = None).

Lemma wl_none tv wv rv id : WIv tv wv rv -> wl tv rv id -> rv id = None.
Proof. intros H [E|[_ E]]; [|exact E]. eapply wi_R_none; [exact H|]. rewrite E. discriminate. Qed.

Lemma wl_wants tv wv rv id : WIv tv wv rv -> wl tv rv id ->
  forall w, inA wv w id = false /\ inP wv w id = false /\ inM wv w id = false.
Proof.
  intros H Hl w. rewrite (wi_A _ _ _ H), (wi_P _ _ _ H), (wi_M _ _ _ H). unfold wantA, wantP, wantM.
  destruct Hl as [E|[E1 E2]]; [rewrite E; auto | rewrite E1, E2; auto].
Qed.

Lemma V_neutral tv wv rv id s : WIv tv wv rv -> wl tv rv id -> (plo s = PN \/ plo s = PR) -> WIv (tset tv id s) wv rv.
Proof.
  intros H Hl Hs. pose proof (wl_none _ _ _ _ H Hl) as Hr.
  eapply (WIv_ext (tset tv id s) wv (rset rv id (rv id))); [reflexivity | reflexivity | intros x; symmetry; apply rset_same |].
  apply V_tpoint; [exact H | | rewrite Hr; congruence].
  intros w. destruct (wl_wants _ _ _ _ H Hl w) as (A & P & M). rewrite A, P, M.
  unfold wantA, wantP, wantM, tset, rset. rewrite tid_eqb_refl, Hr. destruct Hs as [-> | ->]; auto.
Qed.

Lemma in_wset_other wv w k w' id : N.eqb w' w = false ->
  inA (wset wv w k) w' id = inA wv w' id /\ inP (wset wv w k) w' id = inP wv w' id /\ inM (wset wv w k) w' id = inM wv w' id.
Proof. intros E. unfold inA, inP, inM, wset. rewrite E. auto. Qed.

Lemma in_wset_sn wv w wk a p f id : w_assign wk = Sn a p f ->
  inA (wset wv w (Some wk)) w id = tid_mem id a /\ inP (wset wv w (Some wk)) w id = tid_mem id p /\ inM (wset wv w (Some wk)) w id = false.
Proof. intros E. unfold inA, inP, inM, wset. rewrite N.eqb_refl, E. auto. Qed.

Lemma in_sn wv w wk a p f id : wv w = Some wk -> w_assign wk = Sn a p f ->
  inA wv w id = tid_mem id a /\ inP wv w id = tid_mem id p /\ inM wv w id = false.
Proof. intros E1 E2. unfold inA, inP, inM. rewrite E1, E2. auto. Qed.

Lemma in_wset_none wv w id :
  inA (wset wv w None) w id = false /\ inP (wset wv w None) w id = false /\ inM (wset wv w None) w id = false.
Proof. unfold inA, inP, inM, wset. rewrite N.eqb_refl. auto. Qed.

Lemma sets_ok_sn wk a p f : w_assign wk = Sn a p f -> tsorted a -> tsorted p -> sets_ok (Some wk).
Proof. intros E Sa Sp wk0 a0 p0 f0 E0 E1. inversion E0; subst. rewrite E in E1. inversion E1; subst. auto. Qed.

Lemma N_eqb_sym_false a b : N.eqb a b = false -> N.eqb b a = false.
Proof. rewrite N.eqb_sym. auto. Qed.

Lemma WIv_mem tv wv rv w wk a p f id : WIv tv wv rv -> wv w = Some wk -> w_assign wk = Sn a p f ->
  tid_mem id a = wantA tv rv w id /\ tid_mem id p = wantP tv w id.
Proof.
  intros H Hw Ha. destruct (in_sn wv w wk a p f id Hw Ha) as (EA & EP & _).
  rewrite <- EA, <- EP. split; [apply (wi_A _ _ _ H) | apply (wi_P _ _ _ H)].
Qed.

Lemma mem_at x id l v : tid_mem id l = v -> tid_mem x l = if tid_eqb x id then v else tid_mem x l.
Proof. intros <-. destruct (tid_eqb x id) eqn:E; [apply tid_eqb_eq in E; subst|]; reflexivity. Qed.

(** A placement (with the redirect, if any) that concerns no worker but [w]. *)
Definition only_at (w : wid) (pl : place) (r : option (wid * N)) : Prop :=
  match pl with
  | PN => True
  | PA w' | PP w' => w' = w
  | PR => match r with Some (tg, _) => tg = w | None => True end
  | PM _ => False
  end.

Lemma only_at_wants tv rv id w : only_at w (plo (tv id)) (rv id) ->
  forall w', wantM tv w' id = false /\ (N.eqb w' w = false -> wantA tv rv w' id = false /\ wantP tv w' id = false).
Proof.
  unfold only_at, wantA, wantP, wantM. intros H w'. revert H.
  destruct (plo (tv id)) as [|x|x| |ws]; [| | |destruct (rv id) as [[tg v]|]|]; intros H; try contradiction; subst;
    (split; [reflexivity|]); intros E; rewrite ?(N_eqb_sym_false _ _ E); auto.
Qed.

Lemma wl_only_at tv rv id w : wl tv rv id -> only_at w (plo (tv id)) (rv id).
Proof. intros [E|[E1 E2]]; [rewrite E | rewrite E1, E2]; exact I. Qed.

(** The one-worker update: [w] goes from [Sn a p f] to [Sn a' p' f'], the task [id] from a placement
    that concerns only [w] to another such, and [id] is in [a'] / [p'] exactly if the new views ask for it. *)
Lemma V_sn tv wv rv id s r w wk wk' a p f a' p' f' :
  WIv tv wv rv -> wv w = Some wk -> w_assign wk = Sn a p f -> w_assign wk' = Sn a' p' f' ->
  only_at w (plo (tv id)) (rv id) -> only_at w (plo s) r -> (r <> None -> plo s = PR) ->
  tsorted a' -> tsorted p' ->
  (forall x, tid_mem x a' = if tid_eqb x id then wantA (tset tv id s) (rset rv id r) w id else tid_mem x a) ->
  (forall x, tid_mem x p' = if tid_eqb x id then wantP (tset tv id s) w id else tid_mem x p) ->
  WIv (tset tv id s) (wset wv w (Some wk')) (rset rv id r).
Proof.
  intros H Hw Ha Ha' Hold Hnew Hr Sa Sp Ma Mp.
  assert (Hnew' : only_at w (plo (tset tv id s id)) (rset rv id r id)) by (unfold tset, rset; rewrite tid_eqb_refl; exact Hnew).
  apply V_point; [exact H | eapply sets_ok_sn; eassumption | | | exact Hr].
  - intros id' E. destruct (in_wset_sn wv w wk' _ _ _ id' Ha') as (-> & -> & ->).
    destruct (in_sn wv w wk _ _ _ id' Hw Ha) as (-> & -> & ->). rewrite Ma, Mp, E. auto.
  - intros w'. destruct (only_at_wants _ _ _ _ Hnew' w') as [-> Hn].
    destruct (N.eqb w' w) eqn:Ew.
    + apply N.eqb_eq in Ew. subst w'. destruct (in_wset_sn wv w wk' _ _ _ id Ha') as (-> & -> & ->).
      rewrite Ma, Mp, tid_eqb_refl. auto.
    + destruct (in_wset_other wv w (Some wk') w' id Ew) as (-> & -> & ->). destruct (Hn eq_refl) as [-> ->].
      rewrite (wi_A _ _ _ H), (wi_P _ _ _ H), (wi_M _ _ _ H).
      destruct (only_at_wants _ _ _ _ Hold w') as [-> Ho]. destruct (Ho Ew) as [-> ->]. auto.
Qed.

Lemma V_relA tv wv rv id s w wk wk' a p f f' :
  WIv tv wv rv -> plo (tv id) = PA w -> wv w = Some wk -> w_assign wk = Sn a p f ->
  w_assign wk' = Sn (tid_remove id a) p f' -> plo s = PN ->
  WIv (tset tv id s) (wset wv w (Some wk')) rv.
Proof.
  intros H Hp Hw Ha Ha' Hs.
  assert (Hr : rv id = None) by (eapply wi_R_none; [exact H | rewrite Hp; discriminate]).
  destruct (wi_sets _ _ _ H w wk a p f Hw Ha) as [Sa Sp]. destruct (WIv_mem _ _ _ _ _ _ _ _ id H Hw Ha) as [_ Mp].
  eapply (WIv_ext _ _ (rset rv id (rv id))); [reflexivity | reflexivity | intros x; symmetry; apply rset_same |].
  eapply V_sn; [exact H | exact Hw | exact Ha | exact Ha' | rewrite Hp; reflexivity | rewrite Hs; exact I | rewrite Hr; congruence
    | apply tid_remove_sorted; exact Sa | exact Sp | |].
  - intros x. rewrite tid_mem_remove by exact Sa. unfold wantA, tset, rset. rewrite tid_eqb_refl, Hs. destruct (tid_eqb x id); reflexivity.
  - intros x. apply mem_at. rewrite Mp. unfold wantP, tset. rewrite tid_eqb_refl, Hp, Hs. reflexivity.
Qed.

Lemma V_relP tv wv rv id s w wk wk' a p f :
  WIv tv wv rv -> plo (tv id) = PP w -> wv w = Some wk -> w_assign wk = Sn a p f ->
  w_assign wk' = Sn a (tid_remove id p) f -> (plo s = PN \/ plo s = PR) ->
  WIv (tset tv id s) (wset wv w (Some wk')) rv.
Proof.
  intros H Hp Hw Ha Ha' Hs.
  assert (Hr : rv id = None) by (eapply wi_R_none; [exact H | rewrite Hp; discriminate]).
  destruct (wi_sets _ _ _ H w wk a p f Hw Ha) as [Sa Sp]. destruct (WIv_mem _ _ _ _ _ _ _ _ id H Hw Ha) as [Ma _].
  eapply (WIv_ext _ _ (rset rv id (rv id))); [reflexivity | reflexivity | intros x; symmetry; apply rset_same |].
  eapply V_sn; [exact H | exact Hw | exact Ha | exact Ha' | rewrite Hp; reflexivity | rewrite Hr; destruct Hs as [-> | ->]; exact I | rewrite Hr; congruence
    | exact Sa | apply tid_remove_sorted; exact Sp | |].
  - intros x. apply mem_at. rewrite Ma. unfold wantA, tset, rset. rewrite tid_eqb_refl, Hp, Hr. destruct Hs as [-> | ->]; reflexivity.
  - intros x. rewrite tid_mem_remove by exact Sp. unfold wantP, tset. rewrite tid_eqb_refl. destruct (tid_eqb x id); [destruct Hs as [-> | ->]|]; reflexivity.
Qed.

Lemma V_putA tv wv rv id s w wk wk' a p f f' :
  WIv tv wv rv -> wl tv rv id -> wv w = Some wk -> w_assign wk = Sn a p f ->
  w_assign wk' = Sn (tid_insert id a) p f' -> plo s = PA w ->
  WIv (tset tv id s) (wset wv w (Some wk')) rv.
Proof.
  intros H Hl Hw Ha Ha' Hs.
  pose proof (wl_none _ _ _ _ H Hl) as Hr. pose proof (wl_only_at _ _ _ w Hl) as Ho.
  destruct (wi_sets _ _ _ H w wk a p f Hw Ha) as [Sa Sp]. destruct (WIv_mem _ _ _ _ _ _ _ _ id H Hw Ha) as [_ Mp].
  eapply (WIv_ext _ _ (rset rv id (rv id))); [reflexivity | reflexivity | intros x; symmetry; apply rset_same |].
  eapply V_sn; [exact H | exact Hw | exact Ha | exact Ha' | exact Ho | rewrite Hs; reflexivity | rewrite Hr; congruence
    | apply tid_insert_sorted; exact Sa | exact Sp | |].
  - intros x. rewrite tid_mem_insert. unfold wantA, tset, rset. rewrite tid_eqb_refl, Hs, N.eqb_refl. destruct (tid_eqb x id); reflexivity.
  - intros x. apply mem_at. rewrite Mp. unfold wantP, tset. rewrite tid_eqb_refl, Hs. destruct Hl as [-> | [-> _]]; reflexivity.
Qed.

Lemma V_putP tv wv rv id s w wk wk' a p f :
  WIv tv wv rv -> wl tv rv id -> wv w = Some wk -> w_assign wk = Sn a p f ->
  w_assign wk' = Sn a (tid_insert id p) f -> plo s = PP w ->
  WIv (tset tv id s) (wset wv w (Some wk')) rv.
Proof.
  intros H Hl Hw Ha Ha' Hs.
  pose proof (wl_none _ _ _ _ H Hl) as Hr. pose proof (wl_only_at _ _ _ w Hl) as Ho.
  destruct (wi_sets _ _ _ H w wk a p f Hw Ha) as [Sa Sp]. destruct (WIv_mem _ _ _ _ _ _ _ _ id H Hw Ha) as [Ma _].
  eapply (WIv_ext _ _ (rset rv id (rv id))); [reflexivity | reflexivity | intros x; symmetry; apply rset_same |].
  eapply V_sn; [exact H | exact Hw | exact Ha | exact Ha' | exact Ho | rewrite Hs; reflexivity | rewrite Hr; congruence
    | exact Sa | apply tid_insert_sorted; exact Sp | |].
  - intros x. apply mem_at. rewrite Ma. unfold wantA, tset, rset. rewrite tid_eqb_refl, Hs. destruct Hl as [-> | [-> ->]]; reflexivity.
  - intros x. rewrite tid_mem_insert. unfold wantP, tset. rewrite tid_eqb_refl, Hs, N.eqb_refl. destruct (tid_eqb x id); reflexivity.
Qed.

Lemma V_relR tv wv rv id w v wk wk' a p f f' :
  WIv tv wv rv -> rv id = Some (w, v) -> wv w = Some wk -> w_assign wk = Sn a p f ->
  w_assign wk' = Sn (tid_remove id a) p f' ->
  WIv tv (wset wv w (Some wk')) (rset rv id None).
Proof.
  intros H Hr Hw Ha Ha'.
  assert (Hp : plo (tv id) = PR) by (apply (wi_R _ _ _ H); congruence).
  destruct (wi_sets _ _ _ H w wk a p f Hw Ha) as [Sa Sp]. destruct (WIv_mem _ _ _ _ _ _ _ _ id H Hw Ha) as [_ Mp].
  eapply (WIv_ext (tset tv id (tv id))); [intros x; rewrite tset_same; reflexivity | reflexivity | reflexivity |].
  eapply V_sn; [exact H | exact Hw | exact Ha | exact Ha' | rewrite Hp, Hr; reflexivity | rewrite Hp; exact I | congruence
    | apply tid_remove_sorted; exact Sa | exact Sp | |].
  - intros x. rewrite tid_mem_remove by exact Sa. unfold wantA, tset, rset. rewrite tid_eqb_refl, Hp. destruct (tid_eqb x id); reflexivity.
  - intros x. apply mem_at. rewrite Mp. unfold wantP, tset. rewrite tid_eqb_refl, Hp. reflexivity.
Qed.

Lemma V_putR tv wv rv id w v wk wk' a p f f' :
  WIv tv wv rv -> plo (tv id) = PR -> rv id = None -> wv w = Some wk -> w_assign wk = Sn a p f ->
  w_assign wk' = Sn (tid_insert id a) p f' ->
  WIv tv (wset wv w (Some wk')) (rset rv id (Some (w, v))).
Proof.
  intros H Hp Hr Hw Ha Ha'.
  destruct (wi_sets _ _ _ H w wk a p f Hw Ha) as [Sa Sp]. destruct (WIv_mem _ _ _ _ _ _ _ _ id H Hw Ha) as [_ Mp].
  eapply (WIv_ext (tset tv id (tv id))); [intros x; rewrite tset_same; reflexivity | reflexivity | reflexivity |].
  eapply V_sn; [exact H | exact Hw | exact Ha | exact Ha' | rewrite Hp, Hr; exact I | rewrite Hp; reflexivity | intros _; exact Hp
    | apply tid_insert_sorted; exact Sa | exact Sp | |].
  - intros x. rewrite tid_mem_insert. unfold wantA, tset, rset. rewrite tid_eqb_refl, Hp, N.eqb_refl. destruct (tid_eqb x id); reflexivity.
  - intros x. apply mem_at. rewrite Mp. unfold wantP, tset. rewrite tid_eqb_refl, Hp. reflexivity.
Qed.

Lemma V_redirect_done tv wv rv id s w v :
  WIv tv wv rv -> rv id = Some (w, v) -> plo s = PA w -> WIv (tset tv id s) wv (rset rv id None).
Proof.
  intros H Hr Hs.
  assert (Hp : plo (tv id) = PR) by (apply (wi_R _ _ _ H); congruence).
  apply V_tpoint; [exact H | | congruence].
  intros w'. rewrite (wi_A _ _ _ H), (wi_P _ _ _ H), (wi_M _ _ _ H).
  unfold wantA, wantP, wantM, tset, rset. rewrite tid_eqb_refl, Hp, Hr, Hs. auto.
Qed.

Lemma V_wsame tv wv rv w wk wk' : WIv tv wv rv -> wv w = Some wk -> w_assign wk' = w_assign wk -> WIv tv (wset wv w (Some wk')) rv.
Proof.
  intros H Hw Ha. apply V_wpoint; [exact H | |].
  - intros wk0 a p f E E1. inversion E; subst. rewrite Ha in E1. eapply (wi_sets _ _ _ H w); eassumption.
  - intros id. unfold inA, inP, inM, wset. rewrite N.eqb_refl, Hw, Ha. auto.
Qed.

Definition wfree (wv : wview) (w : wid) : Prop := forall id, inA wv w id = false /\ inP wv w id = false /\ inM wv w id = false.

Lemma V_wempty tv wv rv w k : WIv tv wv rv -> wfree wv w -> sets_ok k -> wfree (wset wv w k) w -> WIv tv (wset wv w k) rv.
Proof.
  intros H F Hk F'. apply V_wpoint; [exact H | exact Hk |].
  intros id. destruct (F id) as (-> & -> & ->). apply F'.
Qed.

Lemma wfree_none wv w : wv w = None -> wfree wv w.
Proof. intros E id. unfold inA, inP, inM. rewrite E. auto. Qed.
Lemma wfree_empty wv w wk f : wv w = Some wk -> w_assign wk = Sn [] [] f -> wfree wv w.
Proof. intros E Ea id. unfold inA, inP, inM. rewrite E, Ea. auto. Qed.
Lemma sets_ok_none : sets_ok None.
Proof. intros wk a p f E. discriminate. Qed.
Lemma sets_ok_empty wk f : w_assign wk = Sn [] [] f -> sets_ok (Some wk).
Proof. intros E. eapply sets_ok_sn; [exact E | constructor | constructor]. Qed.

Lemma n_mem_filter_ne w x ws : n_mem x (filter (fun y => negb (N.eqb y w)) ws) = n_mem x ws && negb (N.eqb x w).
Proof.
  induction ws as [|h t IH]; cbn [filter n_mem]; [reflexivity|].
  destruct (N.eqb h w) eqn:E; cbn [negb n_mem].
  - apply N.eqb_eq in E. subst h. rewrite IH. destruct (N.eqb x w); cbn; [rewrite andb_false_r; reflexivity | reflexivity].
  - rewrite IH. destruct (N.eqb x h) eqn:E2; cbn [orb]; [|reflexivity].
    apply N.eqb_eq in E2. subst x. rewrite E. reflexivity.
Qed.

Lemma inM_mn wv w id : inM wv w id = true -> exists wk t root, wv w = Some wk /\ w_assign wk = Mn t root /\ t = id.
Proof.
  unfold inM. destruct (wv w) as [wk|]; [|discriminate]. destruct (w_assign wk) as [|t root] eqn:E; [discriminate|].
  intros X. apply tid_eqb_eq in X. exists wk, t, root. auto.
Qed.

Lemma mn_ins wv w wk t root id' : wv w = Some wk -> w_assign wk = Mn t root ->
  inA wv w id' = false /\ inP wv w id' = false /\ inM wv w id' = tid_eqb t id'.
Proof. intros E Ea. unfold inA, inP, inM. rewrite E, Ea. auto. Qed.

Lemma want_tset_other tv rv id s x id' : tid_eqb id' id = false ->
  wantA (tset tv id s) rv x id' = wantA tv rv x id' /\ wantP (tset tv id s) x id' = wantP tv x id' /\ wantM (tset tv id s) x id' = wantM tv x id'.
Proof. intros E. unfold wantA, wantP, wantM, tset. rewrite E. auto. Qed.

Lemma in_same wv wv' x id' : wv' x = wv x ->
  inA wv' x id' = inA wv x id' /\ inP wv' x id' = inP wv x id' /\ inM wv' x id' = inM wv x id'.
Proof. intros E. unfold inA, inP, inM. rewrite E. auto. Qed.

Lemma V_relM tv wv rv id s ws wv' :
  WIv tv wv rv -> plo (tv id) = PM ws ->
  (forall x, n_mem x ws = false -> wv' x = wv x) ->
  (forall x, n_mem x ws = true -> sets_ok (wv' x) /\ wfree wv' x) ->
  plo s = PN ->
  WIv (tset tv id s) wv' rv.
Proof.
  intros H Hp Hout Hin Hs.
  assert (Hr : rv id = None) by (eapply wi_R_none; [exact H | rewrite Hp; discriminate]).
  assert (Hold : forall x, n_mem x ws = true -> forall id', tid_eqb id' id = false ->
            wantA tv rv x id' = false /\ wantP tv x id' = false /\ wantM tv x id' = false).
  { intros x Hx id' E. rewrite <- (wi_A _ _ _ H), <- (wi_P _ _ _ H), <- (wi_M _ _ _ H).
    assert (Hm : inM wv x id = true) by (rewrite (wi_M _ _ _ H); unfold wantM; rewrite Hp; exact Hx).
    destruct (inM_mn _ _ _ Hm) as (wk & t & root & E1 & E2 & ->).
    destruct (mn_ins wv x wk id root id' E1 E2) as (-> & -> & ->). rewrite tid_eqb_sym, E. auto. }
  assert (Hnew : forall x, wantA (tset tv id s) rv x id = false /\ wantP (tset tv id s) x id = false /\ wantM (tset tv id s) x id = false).
  { intros x. unfold wantA, wantP, wantM, tset. rewrite tid_eqb_refl, Hs. auto. }
  assert (Hall : forall x id', inA wv' x id' = wantA (tset tv id s) rv x id' /\ inP wv' x id' = wantP (tset tv id s) x id' /\ inM wv' x id' = wantM (tset tv id s) x id').
  { intros x id'. destruct (n_mem x ws) eqn:Ex.
    - destruct (Hin x Ex) as [_ F]. destruct (F id') as (-> & -> & ->).
      destruct (tid_eqb id' id) eqn:E.
      + apply tid_eqb_eq in E. subst id'. destruct (Hnew x) as (-> & -> & ->). auto.
      + destruct (want_tset_other tv rv id s x id' E) as (-> & -> & ->). destruct (Hold x Ex id' E) as (-> & -> & ->). auto.
    - destruct (in_same wv wv' x id' (Hout x Ex)) as (-> & -> & ->). rewrite (wi_A _ _ _ H), (wi_P _ _ _ H), (wi_M _ _ _ H).
      destruct (tid_eqb id' id) eqn:E.
      + apply tid_eqb_eq in E. subst id'. destruct (Hnew x) as (-> & -> & ->).
        unfold wantA, wantP, wantM. rewrite Hp, Ex. auto.
      + destruct (want_tset_other tv rv id s x id' E) as (-> & -> & ->). auto. }
  constructor.
  - intros x. destruct (n_mem x ws) eqn:Ex; [apply (Hin x Ex) | rewrite (Hout x Ex); apply (wi_sets _ _ _ H)].
  - intros x id'. apply Hall.
  - intros x id'. apply Hall.
  - intros x id'. apply Hall.
  - intros id'. unfold tset. destruct (tid_eqb id' id) eqn:E; [apply tid_eqb_eq in E; subst; congruence | apply (wi_R _ _ _ H)].
Qed.

Lemma V_putM tv wv rv id s ws wv' :
  WIv tv wv rv -> wl tv rv id ->
  (forall x, n_mem x ws = false -> wv' x = wv x) ->
  (forall x, n_mem x ws = true -> wfree wv x /\ exists wk root, wv' x = Some wk /\ w_assign wk = Mn id root) ->
  plo s = PM ws ->
  WIv (tset tv id s) wv' rv.
Proof.
  intros H Hl Hout Hin Hs.
  pose proof (wl_none _ _ _ _ H Hl) as Hr.
  assert (Hnew : forall x, wantA (tset tv id s) rv x id = false /\ wantP (tset tv id s) x id = false /\ wantM (tset tv id s) x id = n_mem x ws).
  { intros x. unfold wantA, wantP, wantM, tset. rewrite tid_eqb_refl, Hs. auto. }
  assert (Hall : forall x id', inA wv' x id' = wantA (tset tv id s) rv x id' /\ inP wv' x id' = wantP (tset tv id s) x id' /\ inM wv' x id' = wantM (tset tv id s) x id').
  { intros x id'. destruct (n_mem x ws) eqn:Ex.
    - destruct (Hin x Ex) as [F (wk & root & E1 & E2)]. destruct (mn_ins wv' x wk id root id' E1 E2) as (-> & -> & ->).
      destruct (tid_eqb id' id) eqn:E.
      + apply tid_eqb_eq in E. subst id'. destruct (Hnew x) as (-> & -> & ->). rewrite tid_eqb_refl, Ex. auto.
      + destruct (want_tset_other tv rv id s x id' E) as (-> & -> & ->). rewrite <- (wi_A _ _ _ H), <- (wi_P _ _ _ H), <- (wi_M _ _ _ H).
        destruct (F id') as (-> & -> & ->). rewrite tid_eqb_sym, E. auto.
    - destruct (in_same wv wv' x id' (Hout x Ex)) as (-> & -> & ->).
      destruct (tid_eqb id' id) eqn:E.
      + apply tid_eqb_eq in E. subst id'. destruct (Hnew x) as (-> & -> & ->). rewrite Ex. apply (wl_wants _ _ _ _ H Hl).
      + destruct (want_tset_other tv rv id s x id' E) as (-> & -> & ->). rewrite (wi_A _ _ _ H), (wi_P _ _ _ H), (wi_M _ _ _ H). auto. }
  constructor.
  - intros x. destruct (n_mem x ws) eqn:Ex; [|rewrite (Hout x Ex); apply (wi_sets _ _ _ H)].
    destruct (Hin x Ex) as [_ (wk & root & E1 & E2)]. intros wk0 a p f E0 Ea. rewrite E1 in E0. inversion E0; subst. congruence.
  - intros x id'. apply Hall.
  - intros x id'. apply Hall.
  - intros x id'. apply Hall.
  - intros id'. unfold tset. destruct (tid_eqb id' id) eqn:E; [apply tid_eqb_eq in E; subst; congruence | apply (wi_R _ _ _ H)].
Qed.

Lemma V_shrinkM tv wv rv id s ws w :
  WIv tv wv rv -> plo (tv id) = PM ws -> inM wv w id = true ->
  plo s = PM (filter (fun y => negb (N.eqb y w)) ws) ->
  WIv (tset tv id s) (wset wv w None) rv.
Proof.
  intros H Hp Hm Hs.
  assert (Hr : rv id = None) by (eapply wi_R_none; [exact H | rewrite Hp; discriminate]).
  destruct (inM_mn _ _ _ Hm) as (wk & t & root & E1 & E2 & ->).
  eapply (WIv_ext _ _ (rset rv id (rv id))); [reflexivity | reflexivity | intros x; symmetry; apply rset_same |].
  apply V_point; [exact H | apply sets_ok_none | | | rewrite Hr; congruence].
  - intros id' E. destruct (in_wset_none wv w id') as (-> & -> & ->).
    destruct (mn_ins wv w wk id root id' E1 E2) as (-> & -> & ->). rewrite tid_eqb_sym, E. auto.
  - intros w'. unfold wantA, wantP, wantM, tset, rset. rewrite tid_eqb_refl, Hs, n_mem_filter_ne.
    destruct (N.eqb w' w) eqn:Ew.
    + apply N.eqb_eq in Ew. subst w'. destruct (in_wset_none wv w id) as (-> & -> & ->). rewrite andb_false_r. auto.
    + destruct (in_wset_other wv w None w' id Ew) as (-> & -> & ->).
      rewrite (wi_A _ _ _ H), (wi_P _ _ _ H), (wi_M _ _ _ H). unfold wantA, wantP, wantM. rewrite Hp, andb_true_r. auto.
Qed.
