(** C09 for client requests: totality of the core primitives on the paths of the
    client requests (queue removal, worker-set removal, consumer collection, [remove_consumer_from],
    [reset_mn_all]) and of [process_retracted], from the invariants [WI] / [QInv] / [GD]; then
    [on_new_tasks] (add_new_tasks, add_ready_task, process_retracted) is total on a state satisfying
    the invariants when the new ids are not in the core and the request indices are valid. *)
From HQ Require Import Base.Prelude Cluster.Types Cluster.Core Cluster.Reactor Cluster.Server Cluster.InvWServer Cluster.InvQOps Cluster.InvQTake Cluster.InvQStep Cluster.BijBase Cluster.BijFinal Cluster.InvWBase Cluster.InvWView Cluster.InvWCore Cluster.InvWReact Cluster.InvQBase Cluster.InvQInv Cluster.InvDRem Cluster.NoPanicC1.
From HQ Require Import Cluster.ModelFacts.
From Coq Require Import ZArith Lia Sorting.Sorted.
Local Open Scope N_scope.
Arguments N.add : simpl never.
Arguments N.sub : simpl never.

Lemma nth_queue_tot qs i : (i < length qs)%nat -> exists q, nth_queue qs i = Ok q /\ nth_error qs i = Some q.
Proof. intros H. destruct (nth_error_ex qs i H) as (q & Hq). exists q. split; [apply nth_queue_ok; exact Hq | exact Hq]. Qed.

Lemma get_rq_tot rqs rq : (N.to_nat rq < length rqs)%nat -> exists r, get_rq rqs rq = Ok r.
Proof. intros H. unfold get_rq. destruct (nth_error_ex rqs _ H) as (r & ->). eexists; reflexivity. Qed.

Lemma qe_remove_tot es id p : WFE es -> EAt es p id -> exists es', qe_remove es id p = Ok es'.
Proof.
  induction es as [|e t IH]; intros Hwf Hat; [apply EAt_nil in Hat; destruct Hat|].
  destruct (WFE_inv _ _ Hwf) as (He & Hb & Hwt). cbn [qe_remove].
  destruct (Z.eqb (qe_prio e) p) eqn:E.
  - apply Z.eqb_eq in E. destruct (qe_more e).
    + destruct (tid_remove id (qe_ids e)); eexists; reflexivity.
    + assert (Hm : tid_mem id (qe_ids e) = true).
      { apply EAt_cons in Hat. destruct Hat as [[_ Hin]|Hat]; [apply tid_mem_In; exact Hin|].
        exfalso. apply (WFE_head_notin _ _ _ _ Hwf Hat). symmetry. exact E. }
      rewrite Hm. eexists; reflexivity.
  - apply Z.eqb_neq in E. apply EAt_cons in Hat. destruct Hat as [[Hp _]|Hat]; [contradiction|].
    destruct (IH Hwt Hat) as (es' & ->). eexists; reflexivity.
Qed.

Lemma q_remove_tot q id p : WFQ q -> RdyAt q p id \/ PfAt q p id -> exists q', q_remove q id p = Ok q'.
Proof.
  intros [Hwe Hwp] Hat. unfold q_remove.
  assert (Hr : RdyAt q p id -> exists q', (do r <- qe_remove (q_ready q) id p; Ok (mkQ r (q_prefill q))) = Ok q').
  { intros Hrd. destruct (qe_remove_tot _ _ _ Hwe Hrd) as (es' & ->). eexists; reflexivity. }
  destruct (q_prefill q) as [[pp ts]|] eqn:Ep.
  - destruct (Z.eqb p pp && tid_mem id ts) eqn:Ec; [eexists; reflexivity|].
    destruct Hat as [Hrd|Hpf]; [apply Hr; exact Hrd|].
    unfold PfAt in Hpf. rewrite Ep in Hpf. apply PAt_some in Hpf. destruct Hpf as [-> Hin].
    apply tid_mem_In in Hin. rewrite Z.eqb_refl, Hin in Ec. discriminate.
  - destruct Hat as [Hrd|Hpf]; [apply Hr; exact Hrd|].
    unfold PfAt in Hpf. rewrite Ep in Hpf. apply PAt_none in Hpf. destruct Hpf.
Qed.

Lemma q_remove_prefilled_tot q id p : PfAt q p id -> exists q', q_remove_prefilled q id = Ok q'.
Proof.
  unfold PfAt, PAt, q_remove_prefilled. intros (ts & -> & Hin). apply tid_mem_In in Hin. rewrite Hin.
  destruct (tid_remove id ts); eexists; reflexivity.
Qed.

Lemma placed_ready_at q pr x : placed q Ready pr x -> RdyAt q pr x.
Proof. intros [A _]. apply A. reflexivity. Qed.
Lemma placed_prefill_at q pr x : placed q Prefill pr x -> PfAt q pr x.
Proof. intros [A _]. apply A. reflexivity. Qed.

Lemma remove_sn_task_tot wk id rq a p f : w_assign wk = Sn a p f -> tid_mem id a = true ->
  exists wk', remove_sn_task wk id rq = Ok wk' /\ w_id wk' = w_id wk.
Proof. intros Ea Hm. unfold remove_sn_task. rewrite Ea, Hm. eexists. split; reflexivity. Qed.

Lemma remove_prefill_task_tot wk id a p f : w_assign wk = Sn a p f -> tid_mem id p = true ->
  exists wk', remove_prefill_task wk id = Ok wk' /\ w_id wk' = w_id wk.
Proof. intros Ea Hm. unfold remove_prefill_task. rewrite Ea, Hm. eexists. split; reflexivity. Qed.

Lemma get_worker_ok ws w wk : find_worker ws w = Some wk -> get_worker ws w = Ok wk.
Proof. unfold get_worker. intros ->. reflexivity. Qed.
Lemma get_task_ok ts id t : find_task ts id = Some t -> get_task ts id = Ok t.
Proof. unfold get_task. intros ->. reflexivity. Qed.

Lemma inA_sn wv w id : inA wv w id = true ->
  exists wk a p f, wv w = Some wk /\ w_assign wk = Sn a p f /\ tid_mem id a = true.
Proof.
  unfold inA. destruct (wv w) as [wk|]; [|discriminate]. destruct (w_assign wk) as [a p f|] eqn:Ea; [|discriminate].
  exists wk, a, p, f. auto.
Qed.
Lemma inP_sn wv w id : inP wv w id = true ->
  exists wk a p f, wv w = Some wk /\ w_assign wk = Sn a p f /\ tid_mem id p = true.
Proof.
  unfold inP. destruct (wv w) as [wk|]; [|discriminate]. destruct (w_assign wk) as [a p f|] eqn:Ea; [|discriminate].
  exists wk, a, p, f. auto.
Qed.

Lemma WIX_A X c id t w : WIX X c -> X id = false -> find_task (c_tasks c) id = Some t -> pl (t_state t) = PA w ->
  exists wk a p f, find_worker (c_workers c) w = Some wk /\ w_assign wk = Sn a p f /\ tid_mem id a = true.
Proof.
  intros (_ & _ & H & _) Hx Hf Hp.
  assert (E : wantA (hv X (TV (c_tasks c))) (find_redirect (c_redirects c)) w id = true).
  { unfold wantA. rewrite (hv_find X _ _ _ Hx Hf), Hp. apply N.eqb_refl. }
  rewrite <- (wi_A _ _ _ H) in E. exact (inA_sn _ _ _ E).
Qed.

Lemma WIX_P X c id t w : WIX X c -> X id = false -> find_task (c_tasks c) id = Some t -> pl (t_state t) = PP w ->
  exists wk a p f, find_worker (c_workers c) w = Some wk /\ w_assign wk = Sn a p f /\ tid_mem id p = true.
Proof.
  intros (_ & _ & H & _) Hx Hf Hp.
  assert (E : wantP (hv X (TV (c_tasks c))) w id = true).
  { unfold wantP. rewrite (hv_find X _ _ _ Hx Hf), Hp. apply N.eqb_refl. }
  rewrite <- (wi_P _ _ _ H) in E. exact (inP_sn _ _ _ E).
Qed.

Lemma WIX_R X c id w v : WIX X c -> find_redirect (c_redirects c) id = Some (w, v) ->
  exists wk a p f, find_worker (c_workers c) w = Some wk /\ w_assign wk = Sn a p f /\ tid_mem id a = true.
Proof.
  intros HW Hr. pose proof (redirect_visible _ _ _ _ HW Hr) as Hx. destruct HW as (_ & _ & H & _).
  assert (Hpr : plo (hv X (TV (c_tasks c)) id) = PR) by (apply (wi_R _ _ _ H); congruence).
  assert (E : wantA (hv X (TV (c_tasks c))) (find_redirect (c_redirects c)) w id = true).
  { unfold wantA. rewrite Hpr, Hr. apply N.eqb_refl. }
  rewrite <- (wi_A _ _ _ H) in E. exact (inA_sn _ _ _ E).
Qed.

Lemma WIX_M X c id t ws w : WIX X c -> X id = false -> find_task (c_tasks c) id = Some t -> pl (t_state t) = PM ws -> In w ws ->
  exists wk root, find_worker (c_workers c) w = Some wk /\ w_assign wk = Mn id root.
Proof.
  intros (_ & _ & H & _) Hx Hf Hp Hin.
  assert (E : wantM (hv X (TV (c_tasks c))) w id = true).
  { unfold wantM. rewrite (hv_find X _ _ _ Hx Hf), Hp. apply n_mem_In. exact Hin. }
  rewrite <- (wi_M _ _ _ H) in E. destruct (inM_mn _ _ _ E) as (wk & mt & root & E1 & E2 & E3). subst mt. exists wk, root. auto.
Qed.

Definition wdom (c c' : core) : Prop := forall w, find_worker (c_workers c') w <> None <-> find_worker (c_workers c) w <> None.
Lemma wdom_refl c : wdom c c. Proof. intros w. tauto. Qed.
Lemma wdom_workers c c' : c_workers c' = c_workers c -> wdom c c'.
Proof. intros E w. rewrite E. tauto. Qed.
Lemma wdom_upd c wk wk0 : find_worker (c_workers c) (w_id wk) = Some wk0 -> wdom c (upd_worker c wk).
Proof.
  intros Hf w. cbn [upd_worker with_workers c_workers]. rewrite find_set_worker.
  destruct (N.eqb w (w_id wk)) eqn:E; [|tauto]. apply N.eqb_eq in E. subst w. rewrite Hf. split; discriminate.
Qed.

Lemma reset_mn_all_tot l : forall c, (forall w, In w l -> find_worker (c_workers c) w <> None) ->
  exists c', reset_mn_all c l = Ok c'.
Proof.
  induction l as [|w r IH]; intros c H; [eexists; reflexivity|]. cbn [reset_mn_all].
  destruct (find_worker (c_workers c) w) as [wk|] eqn:E; [|exfalso; apply (H w); [left; reflexivity | exact E]].
  rewrite (get_worker_ok _ _ _ E). cbn [bind]. apply IH. intros w' Hw'.
  apply (wdom_upd c (reset_mn_task wk) wk); [cbn; rewrite (proj2 (find_worker_some _ _ _ E)); exact E|].
  apply H. right. exact Hw'.
Qed.

Lemma group_add_keys {A} w (x : A) l : forall w' v, In (w', v) (group_add w x l) -> w' = w \/ exists v0, In (w', v0) l.
Proof.
  induction l as [|[k v] r IH]; cbn [group_add]; intros w' v' Hin.
  - destruct Hin as [Hin|[]]. inversion Hin. left; reflexivity.
  - destruct (N.eqb k w) eqn:E.
    + destruct Hin as [Hin|Hin]; [inversion Hin; subst; apply N.eqb_eq in E; left; exact E | right; exists v'; right; exact Hin].
    + destruct Hin as [Hin|Hin]; [inversion Hin; subst; right; exists v'; left; reflexivity|].
      destruct (IH _ _ Hin) as [->|(v0 & Hv0)]; [left; reflexivity | right; exists v0; right; exact Hv0].
Qed.

Lemma retract_states_tot ids : forall c acc,
  WI c -> NoDup ids ->
  (forall x, In x ids -> exists t w, find_task (c_tasks c) x = Some t /\ t_state t = Prefilled w) ->
  (forall w l, In (w, l) acc -> find_worker (c_workers c) w <> None) ->
  exists c' acc', retract_states c ids acc = Ok (c', acc') /\
    (forall w l, In (w, l) acc' -> find_worker (c_workers c) w <> None).
Proof.
  induction ids as [|id r IH]; intros c acc HW Hnd Hpf Hacc; [exists c, acc; split; [reflexivity | exact Hacc]|].
  inversion Hnd as [|? ? Hni Hnd']; subst.
  destruct (Hpf id (or_introl eq_refl)) as (t & w & Hf & Hst).
  destruct (find_task_some _ _ _ Hf) as [_ Hid].
  destruct (WIX_P x0 c id t w HW eq_refl Hf) as (wk & a & p & f & Hw & Ea & Hm); [rewrite Hst; reflexivity|].
  destruct (remove_prefill_task_tot wk id a p f Ea Hm) as (wk' & Hrm & Hwid).
  set (c1 := upd_worker (upd_task c (with_state t (Retracting w))) wk').
  assert (Hstep : forall r', retract_states c (id :: r') acc = retract_states c1 r' (group_add w id acc)).
  { intros r'. cbn [retract_states]. rewrite (get_task_ok _ _ _ Hf). cbn [bind]. rewrite Hst.
    rewrite (get_worker_ok _ _ _ Hw). cbn [bind]. rewrite Hrm. cbn [bind]. reflexivity. }
  assert (HW1 : WI c1) by (eapply (retract_states_WI [id] c acc); [exact HW | rewrite Hstep; reflexivity]).
  assert (Hd : wdom c c1).
  { subst c1. apply (wdom_upd (upd_task c (with_state t (Retracting w))) wk' wk). cbn. rewrite Hwid, (proj2 (find_worker_some _ _ _ Hw)). exact Hw. }
  rewrite Hstep.
  destruct (IH c1 (group_add w id acc) HW1 Hnd') as (c' & acc' & Hr & Hacc').
  - intros x Hx. destruct (Hpf x (or_intror Hx)) as (tx & wx & Hfx & Hsx). exists tx, wx. split; [|exact Hsx].
    subst c1. cbn [upd_worker with_workers upd_task with_tasks c_tasks]. rewrite find_set_task. cbn [with_state t_id]. rewrite Hid.
    destruct (tid_eqb x id) eqn:E; [apply tid_eqb_eq in E; subst x; contradiction | exact Hfx].
  - intros w' l Hin. apply Hd. destruct (group_add_keys _ _ _ _ _ Hin) as [->|(v0 & Hv0)]; [rewrite Hw; discriminate | eapply Hacc; exact Hv0].
  - exists c', acc'. split; [exact Hr|]. intros w' l Hin. apply Hd. eapply Hacc'. exact Hin.
Qed.

Lemma process_retracted_tot s ret :
  WI (core_of s) -> PWc s -> NoDup ret ->
  (forall x, In x ret -> exists t w, find_task (c_tasks (core_of s)) x = Some t /\ t_state t = Prefilled w) ->
  exists s', process_retracted s ret = Ok s'.
Proof.
  intros HW Hpw Hnd Hpf. unfold process_retracted. destruct ret as [|r0 rr]; [eexists; reflexivity|].
  destruct (retract_states_tot (r0 :: rr) (core_of s) [] HW Hnd Hpf) as (c' & groups & Hr & Hg); [intros w l []|].
  rewrite Hr. cbn [bind]. apply send_all_tot. intros w m Hin.
  apply in_map_iff in Hin. destruct Hin as ([w0 l0] & E & Hin). cbn in E. inversion E; subst.
  change (has_proc s w). apply Hpw. eapply Hg. exact Hin.
Qed.

Lemma collect_consumers_tot fuel : forall ts frontier acc,
  WFc ts -> (forall x, In x frontier -> find_task ts x <> None) -> exists r, collect_consumers fuel ts frontier acc = Ok r.
Proof.
  induction fuel as [|k IH]; intros ts frontier acc W Hf; destruct frontier as [|id rest]; cbn [collect_consumers]; try (eexists; reflexivity).
  destruct (find_task ts id) as [t|] eqn:E; [|exfalso; apply (Hf id); [left; reflexivity | exact E]].
  rewrite (get_task_ok _ _ _ E). cbn [bind]. apply IH; [exact W|].
  intros x Hx. apply in_app_iff in Hx. destruct Hx as [Hx|Hx]; [apply Hf; right; exact Hx|].
  apply filter_In in Hx. destruct Hx as [Hx _]. apply (proj2 (W _ _ E)). exact Hx.
Qed.

Lemma recursive_consumers_tot ts id t : WFc ts -> find_task ts id = Some t -> exists r, recursive_consumers ts t = Ok r.
Proof. intros W Hf. unfold recursive_consumers. apply collect_consumers_tot; [exact W|]. apply (proj2 (W _ _ Hf)). Qed.

Lemma rcf_tot deps : forall ts cid, NoDup deps ->
  (forall d dt, In d deps -> find_task ts d = Some dt -> In cid (t_consumers dt)) ->
  exists ts', remove_consumer_from ts deps cid = Ok ts'.
Proof.
  induction deps as [|d r IH]; intros ts cid Hnd H; [eexists; reflexivity|].
  inversion Hnd as [|? ? Hni Hnd']; subst. cbn [remove_consumer_from].
  destruct (find_task ts d) as [input|] eqn:E.
  - pose proof (H d input (or_introl eq_refl) E) as Hin. apply tid_mem_In in Hin. rewrite Hin.
    apply IH; [exact Hnd'|]. intros d' dt Hd' Hf'. rewrite find_set_task in Hf'. cbn [with_consumers t_id] in Hf'.
    rewrite (proj2 (find_task_some _ _ _ E)) in Hf'.
    destruct (tid_eqb d' d) eqn:E'; [apply tid_eqb_eq in E'; subst d'; contradiction|].
    eapply H; [right; exact Hd' | exact Hf'].
  - apply IH; [exact Hnd'|]. intros d' dt Hd' Hf'. eapply H; [right; exact Hd' | exact Hf'].
Qed.

Lemma nodup_app {A} (a b : list A) : NoDup a -> NoDup b -> (forall x, In x a -> ~ In x b) -> NoDup (a ++ b).
Proof.
  induction a as [|h t IH]; intros Ha Hb Hd; [exact Hb|]. inversion Ha as [|? ? Hn Ht]; subst. cbn [app]. constructor.
  - intros Hin. apply in_app_or in Hin. destruct Hin as [Hin|Hin]; [contradiction | exact (Hd h (or_introl eq_refl) Hin)].
  - apply IH; [exact Ht | exact Hb | intros x Hx; apply Hd; right; exact Hx].
Qed.

Lemma dispose_all_length p : forall qs qs1 r, dispose_all qs p = (qs1, r) -> length qs1 = length qs.
Proof.
  induction qs as [|q0 t IH]; cbn [dispose_all]; intros qs1 r H; [inversion H; reflexivity|].
  destruct (q_check_dispose_prefill q0 p) as [q' r0]. destruct (dispose_all t p) as [t' r'] eqn:Et. inversion H; subst.
  cbn [length]. f_equal. eapply IH. reflexivity.
Qed.

Lemma add_ready_task_tot qs t : (N.to_nat (t_rq t) < length qs)%nat ->
  exists qs' r qs1, add_ready_task qs t = Ok (qs', r) /\ dispose_all qs (t_prio t) = (qs1, r).
Proof.
  intros H. unfold add_ready_task. destruct (dispose_all qs (t_prio t)) as [qs1 r] eqn:E.
  rewrite <- (dispose_all_length _ _ _ _ E) in H. destruct (nth_queue_tot qs1 _ H) as (q & -> & _). cbn [bind].
  eexists; eexists; eexists. split; reflexivity.
Qed.

Lemma cdp_member q p q1 ri x : WFQ q -> q_check_dispose_prefill q p = (q1, ri) -> In x ri -> SL ri /\ exists pp, PfAt q pp x.
Proof.
  intros Hwf H Hin. destruct (q_cdp_spec _ _ _ _ Hwf H) as (_ & [[_ ->]|(pp & Hp & _)]); [destruct Hin|].
  split.
  - destruct Hwf as [_ Hwp]. unfold WFP in Hwp. rewrite Hp in Hwp. exact Hwp.
  - exists pp. unfold PfAt. rewrite Hp. apply PAt_some. auto.
Qed.

Lemma dispose_all_nodup p : forall qs qs1 r, Forall WFQ qs ->
  (forall i j q q' x, nth_error qs i = Some q -> nth_error qs j = Some q' -> member q x -> member q' x -> i = j) ->
  dispose_all qs p = (qs1, r) -> NoDup r.
Proof.
  induction qs as [|q0 t IH]; cbn [dispose_all]; intros qs1 r Hwf Hu H; [inversion H; constructor|].
  destruct (q_check_dispose_prefill q0 p) as [q' r0] eqn:E0. destruct (dispose_all t p) as [t' r'] eqn:Et. inversion H; subst.
  inversion Hwf as [|? ? Hw0 Hwt]; subst.
  apply nodup_app.
  - destruct (q_cdp_spec _ _ _ _ Hw0 E0) as (_ & [[_ ->]|(pp & Hp & _)]); [constructor|].
    apply SL_NoDup. destruct Hw0 as [_ Hwp]. unfold WFP in Hwp. rewrite Hp in Hwp. exact Hwp.
  - eapply IH; [exact Hwt | | reflexivity]. intros i j q q1 x Hi Hj Hm Hm1.
    assert (S i = S j) by (eapply (Hu (S i) (S j)); eassumption). lia.
  - intros x Hx0 Hx'. destruct (cdp_member _ _ _ _ _ Hw0 E0 Hx0) as (_ & pp & Hpf).
    destruct (dispose_all_spec p t t' r' Hwt Et) as (_ & _ & _ & Hsrc).
    destruct (Hsrc x Hx') as (i & q & q1 & ri & Hq & Hc & Hin).
    destruct (cdp_member _ _ _ _ _ (nth_error_Forall _ _ _ _ Hwt Hq) Hc Hin) as (_ & pp' & Hpf').
    assert (O = S i); [|discriminate].
    eapply (Hu O (S i) q0 q x); [reflexivity | exact Hq | exists pp; right; exact Hpf | exists pp'; right; exact Hpf'].
Qed.

Lemma dispose_ret_prefilled ret c p qs1 r : QI (exL Ready ret none) [] c -> dispose_all (c_queues c) p = (qs1, r) ->
  NoDup r /\ forall x, In x r -> ~ In x ret /\ exists t w, find_task (c_tasks c) x = Some t /\ t_state t = Prefilled w.
Proof.
  intros V H. split.
  - eapply dispose_all_nodup; [exact (qv_wf _ _ _ _ _ _ V) | | exact H].
    intros i j q q' x Hi Hj Hm Hm'.
    destruct (qv_live _ _ _ _ _ _ V _ _ _ Hi Hm) as (t & Ht & Hti). destruct (qv_live _ _ _ _ _ _ V _ _ _ Hj Hm') as (t' & Ht' & Htj).
    congruence.
  - intros x Hx. destruct (dispose_all_spec p _ _ _ (qv_wf _ _ _ _ _ _ V) H) as (_ & _ & _ & Hsrc).
    destruct (Hsrc x Hx) as (i & q & q1 & ri & Hq & Hc & Hin).
    destruct (cdp_member _ _ _ _ _ (nth_error_Forall _ _ _ _ (qv_wf _ _ _ _ _ _ V) Hq) Hc Hin) as (_ & pp & Hpf).
    destruct (qv_live _ _ _ _ _ _ V _ _ x Hq) as (t & Ht & Hti); [exists pp; right; exact Hpf|].
    rewrite <- Hti in Hq. pose proof (qv_task _ _ _ _ _ _ V _ _ _ Ht Hq) as Hp.
    unfold exp_place, exL, none in Hp. destruct (tid_mem x ret) eqn:Em.
    + exfalso. exact (proj2 Hp _ Hpf).
    + split; [apply tid_mem_nIn; exact Em|]. exists t.
      destruct (t_state t) as [n|w rv|w|w|w rv|ws|] eqn:Est; cbn [nat_place] in Hp;
        try (exfalso; exact (proj2 Hp _ Hpf)).
      * destruct (N.eqb n 0); exfalso; exact (proj2 Hp _ Hpf).
      * exists w. auto.
      * destruct (find_redirect (c_redirects c) x); exfalso; exact (proj2 Hp _ Hpf).
Qed.

Lemma register_deps_frame deps : forall c id kept count c' kept' count',
  register_deps c id deps kept count = (c', kept', count') ->
  c_queues c' = c_queues c /\ c_workers c' = c_workers c /\ c_rqs c' = c_rqs c /\
  forall x, option_map t_state (find_task (c_tasks c') x) = option_map t_state (find_task (c_tasks c) x).
Proof.
  induction deps as [|d r IH]; cbn [register_deps]; intros c id kept count c' kept' count' H.
  - inversion H; subst. auto.
  - destruct (find_task (c_tasks c) d) as [dep|] eqn:Ef; [|eapply IH; exact H].
    destruct (IH _ _ _ _ _ _ _ H) as (A & B & C & D). split; [exact A|]. split; [exact B|]. split; [exact C|].
    intros x. rewrite D. cbn [upd_task with_tasks c_tasks]. rewrite find_set_task. cbn [with_consumers t_id].
    rewrite (proj2 (find_task_some _ _ _ Ef)).
    destruct (tid_eqb x d) eqn:E; [|reflexivity]. apply tid_eqb_eq in E. subst x. rewrite Ef. reflexivity.
Qed.

Lemma state_none (a b : option task) : option_map t_state a = option_map t_state b -> (a = None <-> b = None).
Proof. destruct a, b; cbn; intros H; split; intros; congruence. Qed.

Definition all_prefilled (c : core) (l : list tid) : Prop :=
  forall x, In x l -> exists t w, find_task (c_tasks c) x = Some t /\ t_state t = Prefilled w.

Lemma add_new_tasks_tot ts : forall c ret,
  QI (exL Ready ret none) [] c -> NoDup ret -> all_prefilled c ret ->
  NoDup (map t_id ts) -> (forall t, In t ts -> find_task (c_tasks c) (t_id t) = None) ->
  Forall (fun t => (N.to_nat (t_rq t) < length (c_rqs c))%nat) ts ->
  exists c' ret', add_new_tasks c ts ret = Ok (c', ret') /\ NoDup ret' /\ all_prefilled c' ret' /\ c_workers c' = c_workers c.
Proof.
  induction ts as [|t r IH]; intros c ret V Hnd Hpf Hndt Hnew Hrq.
  - exists c, ret. split; [reflexivity|]. split; [exact Hnd|]. split; [exact Hpf | reflexivity].
  - cbn [map] in Hndt. inversion Hndt as [|? ? Hni Hndt']; subst. inversion Hrq as [|? ? Hrq1 Hrq2]; subst.
    destruct (register_deps c (t_id t) (t_deps t) [] 0) as [[c1 kept] count] eqn:Er.
    destruct (register_deps_frame _ _ _ _ _ _ _ _ Er) as (Eq & Ew & Erq & Est).
    set (t1 := with_state (with_deps t kept) (Waiting count)).
    assert (Hfn : find_task (c_tasks c1) (t_id t) = None).
    { apply (state_none _ _ (Est (t_id t))). apply Hnew. left. reflexivity. }
    assert (Hq : exists c2 ret0, (if N.eqb count 0 then do (qs, ret) <- add_ready_task (c_queues c1) t1; Ok (with_queues c1 qs, ret) else Ok (c1, [])) = Ok (c2, ret0) /\
                   c_tasks c2 = c_tasks c1 /\ c_workers c2 = c_workers c1 /\ c_rqs c2 = c_rqs c1 /\
                   (ret0 = [] \/ exists qs1, dispose_all (c_queues c) (t_prio t) = (qs1, ret0))).
    { destruct (N.eqb count 0).
      - destruct (add_ready_task_tot (c_queues c1) t1) as (qs & ret0 & qs1 & Ha & Hdis).
        { rewrite Eq, (qv_len _ _ _ _ _ _ V). exact Hrq1. }
        rewrite Ha. cbn [bind]. exists (with_queues c1 qs), ret0. split; [reflexivity|]. split; [reflexivity|]. split; [reflexivity|]. split; [reflexivity|].
        right. exists qs1. rewrite <- Eq. exact Hdis.
      - exists c1, []. split; [reflexivity|]. split; [reflexivity|]. split; [reflexivity|]. split; [reflexivity | left; reflexivity]. }
    destruct Hq as (c2 & ret0 & Hq & Et2 & Ew2 & Erq2 & Hret0).
    set (c3 := upd_task c2 t1).
    assert (Hstep : forall r', add_new_tasks c (t :: r') ret = add_new_tasks c3 r' (ret ++ ret0)).
    { intros r'. cbn [add_new_tasks]. rewrite Er. fold t1. rewrite Hq. cbn [bind]. rewrite Et2, Hfn. reflexivity. }
    assert (H1 : add_new_tasks c [t] ret = Ok (c3, ret ++ ret0)) by (rewrite Hstep; reflexivity).
    assert (Hlive : forall x, In x ret -> find_task (c_tasks c) x <> None).
    { intros x Hx. destruct (Hpf x Hx) as (tx & wx & Hfx & _). congruence. }
    assert (Hrq0 : Forall (fun t => (N.to_nat (t_rq t) < length (c_rqs c))%nat) [t]) by (constructor; [exact Hrq1 | constructor]).
    pose proof (add_new_tasks_QI [t] c ret c3 (ret ++ ret0) V Hlive Hrq0 H1) as V3.
    assert (Hret : NoDup (ret ++ ret0) /\ all_prefilled c (ret ++ ret0)).
    { destruct Hret0 as [->|(qs1 & Hdis)]; [rewrite app_nil_r; split; assumption|].
      destruct (dispose_ret_prefilled ret c _ _ _ V Hdis) as (Hnd0 & Hp0). split.
      - apply nodup_app; [exact Hnd | exact Hnd0|]. intros x Hx Hx0. exact (proj1 (Hp0 x Hx0) Hx).
      - intros x Hx. apply in_app_or in Hx. destruct Hx as [Hx|Hx]; [apply Hpf; exact Hx | apply (proj2 (Hp0 x Hx))]. }
    destruct Hret as (Hnd3 & Hpf3).
    assert (Hkeep : forall x, find_task (c_tasks c) x <> None -> option_map t_state (find_task (c_tasks c3) x) = option_map t_state (find_task (c_tasks c) x)).
    { intros x Hx. subst c3. cbn [upd_task with_tasks c_tasks]. rewrite find_set_task. change (t_id t1) with (t_id t).
      destruct (tid_eqb x (t_id t)) eqn:E; [apply tid_eqb_eq in E; subst x; exfalso; apply Hx; apply Hnew; left; reflexivity|].
      rewrite Et2. apply Est. }
    destruct (IH c3 (ret ++ ret0) V3 Hnd3) as (c' & ret' & Hr & Hnd' & Hpf' & Ew').
    + intros x Hx. destruct (Hpf3 x Hx) as (tx & wx & Hfx & Hsx).
      assert (Hk := Hkeep x ltac:(congruence)). rewrite Hfx in Hk. cbn [option_map] in Hk.
      revert Hk. destruct (find_task (c_tasks c3) x) as [tx'|]; cbn; intros Hk; [|discriminate Hk]. inversion Hk as [Hk']. exists tx', wx. split; [reflexivity | congruence].
    + exact Hndt'.
    + intros t' Ht'. subst c3. cbn [upd_task with_tasks c_tasks]. rewrite find_set_task. change (t_id t1) with (t_id t).
      destruct (tid_eqb (t_id t') (t_id t)) eqn:E.
      * apply tid_eqb_eq in E. exfalso. apply Hni. rewrite <- E. apply in_map. exact Ht'.
      * rewrite Et2. apply (state_none _ _ (Est (t_id t'))). apply Hnew. right. exact Ht'.
    + subst c3. cbn [upd_task with_tasks c_rqs]. rewrite Erq2, Erq. exact Hrq2.
    + exists c', ret'. split; [rewrite Hstep; exact Hr|]. split; [exact Hnd'|]. split; [exact Hpf'|].
      rewrite Ew'. subst c3. cbn [upd_task with_tasks c_workers]. rewrite Ew2, Ew. reflexivity.
Qed.

Theorem on_new_tasks_tot s ts :
  WI (core_of s) -> QI none [] (core_of s) -> PWc s ->
  NoDup (map t_id ts) -> (forall t, In t ts -> find_task (c_tasks (core_of s)) (t_id t) = None) ->
  Forall (fun t => (N.to_nat (t_rq t) < length (c_rqs (core_of s)))%nat) ts ->
  exists s', on_new_tasks s ts = Ok s'.
Proof.
  intros HW V Hpw Hnd Hnew Hrq. unfold on_new_tasks. destruct ts as [|t0 tr]; [eexists; reflexivity|].
  destruct (add_new_tasks_tot (t0 :: tr) (core_of s) []) as (c' & ret' & Ha & Hnd' & Hpf' & Ew); try assumption.
  { constructor. } { intros x []. }
  rewrite Ha. cbn [bind].
  destruct (process_retracted_tot (st_core s c') ret') as (s1 & ->).
  - exact (add_new_tasks_WI _ _ _ _ _ HW Ha).
  - intros w Hw. change (has_proc s w). apply Hpw. change (find_worker (c_workers c') w <> None) in Hw. rewrite Ew in Hw. exact Hw.
  - exact Hnd'.
  - exact Hpf'.
  - cbn [bind]. eexists; reflexivity.
Qed.

