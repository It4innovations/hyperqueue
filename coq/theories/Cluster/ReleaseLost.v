(** C07, "every running task is counted": when a worker is lost for a failure reason, EVERY task
    that was running on it (single-node: state [Running w _]; multi-node: [RunningMN] with root [w])
    gets its crash counter incremented; it is failed exactly when that reaches its crash limit
    (never-restart: always); the only other way it can leave the core in this step is by being aborted
    because another task of its job failed and the job exceeded its failure limit.

    Together with [crash_counter_rule] (CrashFrame.v: a counter changes only by +1, only at a failure
    loss, only for a running task) this is the full crash rule.  The proof needs the worker-set
    invariant [WI]: the lost worker's assigned set contains the task, so [lost_assigned] visits it. *)
From HQ Require Import Base.Prelude Cluster.Types Cluster.Core Cluster.Reactor Cluster.Worker Cluster.Server Cluster.Sys Cluster.Monitors Cluster.ProofsJob Cluster.ProofsMore Cluster.ProofsTerminal Cluster.ProofsStep Cluster.ProofsFinal Cluster.ProofsOnce Cluster.BijBase Cluster.BijCore Cluster.BijHq Cluster.BijSt Cluster.BijReact Cluster.BijFinal Cluster.FrameGen Cluster.CrashFrame Cluster.RejHyp Cluster.InvWBase Cluster.InvWView Cluster.InvWCore Cluster.InvWFinal Cluster.InvAll Cluster.InvBundle Cluster.ReleaseLost0.
From HQ Require Import Cluster.ModelFacts.
From Coq Require Import ZArith Lia Sorting.Sorted.
Local Open Scope N_scope.

Arguments N.add : simpl never.
Arguments N.sub : simpl never.

Lemma lost_prefilled_other l : forall c c', lost_prefilled c l = Ok c' ->
  forall id, ~ In id l -> find_task (c_tasks c') id = find_task (c_tasks c) id.
Proof.
  induction l as [|h r IH]; cbn [lost_prefilled]; intros c c' H id Hni; [inversion H; reflexivity|].
  apply bind_ok in H. destruct H as (t & Ht & H). apply get_task_find in Ht. destruct (find_task_some _ _ _ Ht) as [_ Hid].
  apply bind_ok in H. destruct H as (q & _ & H). apply bind_ok in H. destruct H as (q' & _ & H).
  rewrite (IH _ _ H id) by (intros X; apply Hni; right; exact X).
  change (find_task (set_task (c_tasks c) (with_state (with_inst t (t_inst t + 1)) (Waiting 0))) id = find_task (c_tasks c) id).
  rewrite find_set_task. cbn [t_id with_state with_inst]. rewrite Hid.
  destruct (tid_eqb id h) eqn:E; [apply tid_eqb_eq in E; subst; exfalso; apply Hni; left; reflexivity | reflexivity].
Qed.

Lemma lost_assigned_collects l : forall c running ret c' running' ret',
  lost_assigned c l running ret = Ok (c', running', ret') ->
  incl running running' /\
  forall id t w rv, In id l -> find_task (c_tasks c) id = Some t -> t_state t = Running w rv -> In id running'.
Proof.
  induction l as [|h r IH]; cbn [lost_assigned]; intros c running ret c' running' ret' H.
  - inversion H; subst. split; [apply incl_refl | intros id t w rv []].
  - apply bind_ok in H. destruct H as (t0 & Ht & H). apply get_task_find in Ht. destruct (find_task_some _ _ _ Ht) as [_ Hid].
    apply bind_ok in H. destruct H as ([[c1 t1] running1] & H1 & H). apply bind_ok in H. destruct H as ([qs rt] & _ & H).
    assert (Hc : c_tasks c1 = c_tasks c /\ t_id t1 = h /\ incl running running1 /\ (forall w rv, t_state t0 = Running w rv -> In h running1)).
    { destruct (t_state t0) eqn:Est;
        try (injection H1 as <- <- <-; split; [reflexivity|]; split; [exact Hid|]; split; [apply incl_refl | intros; discriminate]).
      - destruct (find_redirect (c_redirects c) h); [|discriminate]. injection H1 as <- <- <-.
        split; [reflexivity|]. split; [exact Hid|]. split; [apply incl_refl | intros; discriminate].
      - injection H1 as <- <- <-. split; [reflexivity|]. split; [exact Hid|].
        split; [apply incl_appl, incl_refl | intros; apply in_or_app; right; left; reflexivity]. }
    destruct Hc as (Et & Ei & Hinc & Hrun).
    destruct (IH _ _ _ _ _ _ H) as [I1 I2]. split; [eapply incl_tran; eassumption|].
    intros id t w rv Hin Hf Hst. destruct (tid_dec id h) as [->|Hne].
    + rewrite Ht in Hf. inversion Hf; subst t0. apply I1. eapply Hrun. exact Hst.
    + destruct Hin as [->|Hin]; [contradiction|]. eapply (I2 id t w rv Hin); [|exact Hst].
      change (find_task (set_task (c_tasks c1) (with_inst t1 (t_inst t1 + 1))) id = Some t).
      rewrite find_set_task. cbn [t_id with_inst]. rewrite Ei, Et. apply tid_eqb_neq in Hne. rewrite Hne. exact Hf.
Qed.

Lemma perm_of_set_parts order ts : perm_of_set order ts = true ->
  (forall x, In x order -> tid_mem x ts = true) /\ (forall x, In x ts -> tid_mem x order = true).
Proof.
  unfold perm_of_set. intros H. apply andb_true_iff in H. destruct H as [H H2]. apply andb_true_iff in H. destruct H as [_ H1].
  rewrite forallb_forall in H1, H2. auto.
Qed.

Lemma counted_tasks x t c1 c2 E : c_tasks c2 = c_tasks c1 -> counted x t c1 E -> counted x t c2 E.
Proof. unfold counted. intros ->. auto. Qed.

Lemma WI_running_on c w wk id tk :
  WI c -> find_worker (c_workers c) w = Some wk -> find_task (c_tasks c) id = Some tk ->
  (exists rv, t_state tk = Running w rv) \/ (exists rest, t_state tk = RunningMN (w :: rest)) ->
  match w_assign wk with
  | Sn a p _ => (exists rv, t_state tk = Running w rv) /\ tid_mem id a = true /\ tid_mem id p = false
  | Mn mt _ => (exists rest, t_state tk = RunningMN (w :: rest)) /\ mt = id
  end.
Proof.
  intros (_ & _ & Hv & _) Hw Hf Hrun.
  pose proof (wi_A _ _ _ Hv w id) as XA. pose proof (wi_P _ _ _ Hv w id) as XP. pose proof (wi_M _ _ _ Hv w id) as XM.
  unfold inA, wantA, hv, x0 in XA. unfold inP, wantP, hv, x0 in XP. unfold inM, wantM, hv, x0 in XM.
  rewrite Hw, (TV_find _ _ _ Hf) in XA, XP, XM. cbn [plo] in XA, XP, XM.
  destruct (w_assign wk) as [a p f|mt root]; destruct Hrun as [(rv & Est)|(rest & Est)];
    rewrite Est in XA, XP, XM; cbn [pl n_mem] in XA, XP, XM; rewrite N.eqb_refl in *; try discriminate.
  - split; [eauto|]. split; [exact XA | exact XP].
  - split; [eauto|]. apply tid_eqb_eq. exact XM.
Qed.

Lemma cframe_find c c' id t :
  ckeys c' = ckeys c -> find_task (c_tasks c) id = Some t -> exists t', find_task (c_tasks c') id = Some t' /\ ci t' = ci t.
Proof.
  intros E Hf. pose proof (cframe _ _ E id) as X. unfold cget in X. rewrite Hf in X.
  destruct (find_task (c_tasks c') id) as [t'|]; [|discriminate]. exists t'. split; [reflexivity|]. cbn [option_map] in X. congruence.
Qed.

Lemma lost_sn_stage c0 a p c1 c2 running retracted id tk w rv :
  CS c0 -> lost_prefilled c0 p = Ok c1 -> lost_assigned c1 a [] [] = Ok (c2, running, retracted) ->
  find_task (c_tasks c0) id = Some tk -> t_state tk = Running w rv -> In id a -> ~ In id p ->
  keys c2 = keys c0 /\ ckeys c2 = ckeys c0 /\ NoDup running /\ In id running.
Proof.
  intros Hcs Hp Hr Hf Est Hia Hnp. assert (Hs : TS c0) by (apply TS_CS; exact Hcs).
  pose proof (lost_prefilled_frame _ _ _ Hcs Hp) as K1.
  pose proof (lost_prefilled_pframe _ ci ci_state ci_inst _ _ _ Hs Hp) as E1.
  split; [rewrite (lost_assigned_frame _ _ _ _ _ _ _ (CS_keys _ _ K1 Hcs) Hr); exact K1|].
  split; [rewrite (lost_assigned_pframe _ ci ci_state ci_inst _ _ _ _ _ _ _ (PS_keys _ ci _ _ E1 Hs) Hr); exact E1|].
  split.
  - eapply (lost_assigned_running c0 _ c1 [] []); [eapply lost_prefilled_Rinv; [apply Rinv_refl | exact Hp] | constructor | intros x [] | exact Hr].
  - eapply (proj2 (lost_assigned_collects _ _ _ _ _ _ _ Hr) id tk w rv Hia); [|exact Est].
    rewrite (lost_prefilled_other _ _ _ Hp id Hnp). exact Hf.
Qed.

Lemma lost_mn_stage c0 rest c1 id tk :
  CS c0 -> reset_mn_all c0 rest = Ok c1 -> find_task (c_tasks c0) id = Some tk ->
  keys (upd_task c1 (with_inst (with_state tk (Waiting 0)) (t_inst tk + 1))) = keys c0 /\
  ckeys (upd_task c1 (with_inst (with_state tk (Waiting 0)) (t_inst tk + 1))) = ckeys c0.
Proof.
  intros Hcs Hc1 Hf. assert (Hs : TS c0) by (apply TS_CS; exact Hcs).
  pose proof (reset_mn_all_tasks _ _ _ Hc1) as T1. split.
  - transitivity (keys c1); [|exact (reset_mn_all_frame _ _ _ Hc1)].
    apply (upd_task_frame c1 id tk); [eapply CS_keys; [exact (reset_mn_all_frame _ _ _ Hc1) | exact Hcs] | rewrite T1; exact Hf | reflexivity | reflexivity].
  - transitivity (ckeys c1); [|unfold pkeys; rewrite T1; reflexivity].
    apply (upd_task_pframe _ ci c1 id tk); [unfold TS; rewrite T1; exact Hs | rewrite T1; exact Hf | reflexivity | reflexivity].
Qed.

(** From the first stage to the crash-limit loop (tasks still being retracted, the retract
    messages, the loss in the job layer): the bijection with the job layer and the crash info of
    every task are kept, the event stream only grows. *)
Lemma lost_middle s2 w t retracted running reason s3 s4 s6 :
  HOK (hq_of s2) -> CB s2 ->
  lost_retracting s2 w t = Ok s3 -> process_retracted s3 retracted = Ok s4 ->
  process_worker_lost (broadcast s4 (DLostWorker w)) w running reason = Ok s6 ->
  HOK (hq_of s6) /\ CB s6 /\ ckeys (core_of s6) = ckeys (core_of s2) /\ exists E0, snd s6 = snd s2 ++ E0.
Proof.
  intros Hok HC2 H3 H4 H6.
  pose proof (lost_retracting_K _ _ _ _ (cb_s _ HC2) H3) as K3. pose proof (lost_retracting_same _ _ _ _ H3) as Q3.
  assert (HC3 : CB s3) by (eapply CB_same; [exact K3 | exact Q3 | exact HC2]).
  pose proof (process_retracted_K _ _ _ (cb_s _ HC3) H4) as K4. pose proof (process_retracted_hq _ _ _ H4) as Q4.
  assert (HC4 : CB s4) by (eapply CB_same; [exact K4 | exact Q4 | exact HC3]).
  assert (HC5 : CB (broadcast s4 (DLostWorker w))) by (eapply CB_same; [| |exact HC4]; reflexivity).
  destruct (process_worker_lost_active _ _ _ _ _ H6) as [C6 A6]. unfold core_same in C6.
  assert (Hs2 : TS (core_of s2)) by (apply TS_CS; exact (cb_s _ HC2)).
  pose proof (lost_retracting_PK _ ci ci_state ci_inst _ _ _ _ Hs2 H3) as P3. unfold PK in P3.
  assert (Hs3 : TS (core_of s3)) by (eapply PS_keys; [exact P3 | exact Hs2]).
  pose proof (process_retracted_PK _ ci ci_state _ _ _ Hs3 H4) as P4. unfold PK in P4.
  split; [|split; [|split]].
  - eapply process_worker_lost_ok; [|exact H6]. change (HOK (hq_of s4)). unfold hq_same in Q3. rewrite Q4, Q3. exact Hok.
  - eapply CB_frame; [unfold K; rewrite C6; reflexivity | exact A6 | exact HC5].
  - rewrite C6. change (ckeys (core_of s4) = ckeys (core_of s2)). rewrite P4, P3. reflexivity.
  - unfold process_worker_lost in H6. apply bind_ok in H6. destruct H6 as (s5 & H5 & H6). injection H6 as <-.
    exists [OEv (EvWLost w reason)]. cbn [emit snd]. f_equal.
    rewrite (set_waiting_all_snd _ _ _ H5). change (snd s4 = snd s2).
    rewrite (process_retracted_snd _ _ _ H4), (lost_retracting_snd _ _ _ _ H3). reflexivity.
Qed.

Lemma on_remove_worker_counts s w reason a p t s' id tk :
  HOK (hq_of s) -> CB s -> WI (core_of s) ->
  on_remove_worker s w reason a p t = Ok s' -> reason_is_failure reason = true ->
  find_task (c_tasks (core_of s)) id = Some tk ->
  ((exists rv, t_state tk = Running w rv) \/ (exists rest, t_state tk = RunningMN (w :: rest))) ->
  exists E0 E, snd s' = snd s ++ E0 ++ E /\ counted id tk (core_of s') E.
Proof.
  intros Hok HC HW H Hrf Hf Hrun. unfold on_remove_worker in H.
  destruct (find_worker (c_workers (core_of s)) w) as [wk|] eqn:Ew; [|discriminate].
  pose proof (WI_running_on _ _ _ _ _ HW Ew Hf Hrun) as Hon.
  apply bind_ok in H. destruct H as ([[c2 running] retracted] & Hr & H).
  set (c0 := with_workers (core_of s) (del_worker (c_workers (core_of s)) w)) in *.
  assert (Hcs0 : CS c0) by exact (cb_s _ HC).
  (* the first stage keeps the keys and the crash info, and hands [id] to the crash-limit loop *)
  assert (E2 : keys c2 = K s /\ ckeys c2 = ckeys (core_of s) /\ NoDup running /\ In id running).
  { destruct (w_assign wk) as [a0 p0 f0|mt root].
    - destruct Hon as ((rv & Est) & XA & XP).
      destruct (negb (perm_of_set a a0 && perm_of_set p p0)) eqn:Eperm; [discriminate|].
      apply negb_false_iff, andb_true_iff in Eperm. destruct Eperm as [Pa Pp].
      destruct (perm_of_set_parts _ _ Pa) as [_ Pa2]. destruct (perm_of_set_parts _ _ Pp) as [Pp1 _].
      apply bind_ok in Hr. destruct Hr as (c1 & Hp & Hr).
      apply (lost_sn_stage c0 a p c1 c2 running retracted id tk w rv Hcs0 Hp Hr Hf Est).
      + apply tid_mem_In, Pa2, tid_mem_In, XA.
      + intros X. apply Pp1 in X. rewrite X in XP. discriminate.
    - destruct Hon as ((rest & Est) & ->).
      apply bind_ok in Hr. destruct Hr as (tk0 & Ht & Hr). apply get_task_find in Ht.
      change (c_tasks c0) with (c_tasks (core_of s)) in Ht. rewrite Hf in Ht. injection Ht as <-.
      rewrite Est, N.eqb_refl in Hr.
      apply bind_ok in Hr. destruct Hr as (c1 & Hc1 & Hr). apply bind_ok in Hr. destruct Hr as ([qs ret] & _ & Hr).
      injection Hr as <- <- <-. destruct (lost_mn_stage c0 rest c1 id tk Hcs0 Hc1 Hf) as [K2 E2].
      split; [exact K2|]. split; [exact E2|]. split; [constructor; [intros [] | constructor] | left; reflexivity]. }
  destruct E2 as (K2 & E2 & Hnd & Hin).
  destruct (negb (perm_of_set t _)); [discriminate|].
  apply bind_ok in H. destruct H as (s3 & H3 & H). apply bind_ok in H. destruct H as (s4 & H4 & H).
  apply bind_ok in H. destruct H as (s6 & H6 & H). apply bind_ok in H. destruct H as (s7 & H7 & H). injection H as <-.
  match type of H3 with lost_retracting ?sx _ _ = _ => set (s2 := sx) in * end.
  assert (HC2 : CB s2) by (eapply CB_same; [exact K2 | reflexivity | exact HC]).
  destruct (lost_middle s2 _ _ _ _ _ _ _ _ Hok HC2 H3 H4 H6) as (Hok6 & HC6 & K6 & E0 & HE0).
  destruct (cframe_find _ _ id tk (eq_trans K6 E2) Hf) as (t6 & Hf6 & Hci).
  destruct (lost_fail_running_counts _ _ _ _ Hnd Hok6 HC6 Hrf H7) as (E & HE & Hcnt & _ & _).
  exists E0, E. split; [cbn [ask_scheduling st_core snd]; rewrite HE, HE0, app_assoc; reflexivity|].
  eapply (counted_tasks _ _ (core_of s7)); [reflexivity|].
  eapply counted_ci; [exact Hci|]. apply Hcnt; [exact Hin | exact Hf6].
Qed.

Theorem lost_running_all_counted ops reserve maxfill s outs w reason a p t s' outs' id tk :
  Forall op_wf ops -> run_fresh (init_sys reserve maxfill) ops = true -> run (init_sys reserve maxfill) ops = Ok (s, outs) ->
  step s (OpLost w reason a p t) = Ok (s', outs') -> reason_is_failure reason = true ->
  find_task (c_tasks (s_core s)) id = Some tk ->
  ((exists rv, t_state tk = Running w rv) \/ (exists rest, t_state tk = RunningMN (w :: rest))) ->
  (* counted and kept *)
  (limit_hit tk = false /\
   exists tk', find_task (c_tasks (s_core s')) id = Some tk' /\ t_crash tk' = t_crash tk + 1 /\ t_climit tk' = t_climit tk) \/
  (* gone: failed at the limit, or aborted with its job *)
  (find_task (c_tasks (s_core s')) id = None /\
   ((limit_hit tk = true /\ In (OEv (EvFailed id (fail_kind tk))) outs') \/
    exists ids, In id ids /\ In (OEv (EvAborted ids)) outs')).
Proof.
  intros Hwf Hf Hr Hst Hrf Hft Hrun.
  pose proof (reachable_INV _ _ _ _ _ Hwf Hf Hr) as HI.
  cbn [step] in Hst. destruct (find_proc (s_procs s) w); [|discriminate].
  destruct (on_remove_worker_counts (s, []) w reason a p t (s', outs') id tk (inv_hok _ HI) (inv_cb _ HI) (inv_w _ HI) Hst Hrf Hft Hrun)
    as (E0 & E & HE & Hc).
  cbn [snd app] in HE. eapply counted_incl in Hc; [exact Hc|]. rewrite HE. apply incl_appr, incl_refl.
Qed.

(** Non-vacuity 1 (CrashFrame.v's history): a task with limit 3 running on worker 1, which is lost
    by a connection failure: counter 0 -> 1, the task stays. *)
Example lost_counted_example_kept :
  Forall op_wf crash_ops /\ run_fresh (init_sys 0 2) crash_ops = true /\
  exists s outs s' outs' tk tk',
    run (init_sys 0 2) crash_ops = Ok (s, outs) /\ step s crash_last = Ok (s', outs') /\
    find_task (c_tasks (s_core s)) (1, 0) = Some tk /\ t_state tk = Running 1 0 /\ limit_hit tk = false /\
    find_task (c_tasks (s_core s')) (1, 0) = Some tk' /\ t_crash tk' = t_crash tk + 1.
Proof.
  split; [repeat constructor|]. split; [vm_compute; reflexivity|].
  do 6 eexists. split; [vm_compute; reflexivity|]. split; [vm_compute; reflexivity|].
  split; [vm_compute; reflexivity|]. split; [reflexivity|]. split; [reflexivity|]. split; [vm_compute; reflexivity|]. reflexivity.
Qed.

(** Non-vacuity 2: the same with crash limit 1: the task is failed with [FCrashLimit]. *)
Definition crash1_ops : list op :=
  [OpConnect [20000; 0; 0] 0;
   OpSubmit None [] None crash_rq 0%Z (CMax 1) false None;
   OpSched (mkSol [(0, 0, [(1, 1)])] [] [1] []);
   OpDDown 1 []; OpDDown 1 []; OpDUp 1].

Example lost_counted_example_failed :
  Forall op_wf crash1_ops /\ run_fresh (init_sys 0 2) crash1_ops = true /\
  exists s outs s' outs' tk,
    run (init_sys 0 2) crash1_ops = Ok (s, outs) /\ step s crash_last = Ok (s', outs') /\
    find_task (c_tasks (s_core s)) (1, 0) = Some tk /\ t_state tk = Running 1 0 /\ limit_hit tk = true /\
    find_task (c_tasks (s_core s')) (1, 0) = None /\ In (OEv (EvFailed (1, 0) FCrashLimit)) outs'.
Proof.
  split; [repeat constructor|]. split; [vm_compute; reflexivity|].
  do 5 eexists. split; [vm_compute; reflexivity|]. split; [vm_compute; reflexivity|].
  split; [vm_compute; reflexivity|]. split; [reflexivity|]. split; [reflexivity|]. split; [vm_compute; reflexivity|].
  vm_compute. auto.
Qed.

(** Non-vacuity 3 - the third alternative cannot be dropped: two running tasks of a job with
    max-fails 0; (1,0) has crash limit 1, (1,1) limit 5.  The loss fails (1,0) at its limit, the job
    exceeds its failure limit and (1,1) - whose own limit is NOT reached - is aborted, not kept. *)
Definition crash2_ops : list op :=
  [OpConnect [20000; 0; 0] 0;
   OpSubmitG None [crash_rq] [(0, 0, 0%Z, CMax 1, []); (1, 0, 0%Z, CMax 5, [])] (Some 0);
   OpSched (mkSol [(0, 0, [(1, 2)])] [] [1] []);
   OpDDown 1 []; OpDDown 1 []; OpDUp 1].
Definition crash2_last : op := OpLost 1 1 [(1, 0); (1, 1)] [] [(1, 0); (1, 1)].

Example lost_counted_example_aborted :
  Forall op_wf crash2_ops /\ run_fresh (init_sys 0 2) crash2_ops = true /\
  exists s outs s' outs' tk,
    run (init_sys 0 2) crash2_ops = Ok (s, outs) /\ step s crash2_last = Ok (s', outs') /\
    find_task (c_tasks (s_core s)) (1, 1) = Some tk /\ t_state tk = Running 1 0 /\ limit_hit tk = false /\
    find_task (c_tasks (s_core s')) (1, 1) = None /\
    outs' = [OEv (EvWLost 1 1); OEv (EvFailed (1, 0) FCrashLimit); OEv (EvAborted [(1, 1)]); OEv (EvCompleted 1)].
Proof.
  split; [repeat constructor|]. split; [vm_compute; reflexivity|].
  do 5 eexists. split; [vm_compute; reflexivity|]. split; [vm_compute; reflexivity|].
  split; [vm_compute; reflexivity|]. split; [reflexivity|]. split; [reflexivity|]. split; vm_compute; reflexivity.
Qed.

Print Assumptions lost_running_all_counted.
