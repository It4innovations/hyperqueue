(** C06 / C08, worker side: a worker starts a task only if the task is in its backlog or in the
    ComputeTasks message it is processing.  Consequently, after the worker has given a task back
    (RetractTasks) or processed its cancellation (CancelTasks for a task it was not running), it
    never starts that task again unless the server sends it again - for every sequence of
    messages, task ends and timers. *)
From HQ Require Import Base.Prelude Cluster.Types Cluster.Core Cluster.Reactor Cluster.Worker Cluster.ProofsMore.
From HQ Require Import Cluster.ModelFacts.
From Coq Require Import ZArith Lia.
Local Open Scope N_scope.

Definition tid_dec_local (a b : tid) : {a = b} + {a <> b}.
Proof. decide equality; apply N.eq_dec. Defined.

Inductive wev :=
| WMsg (m : dmsg) (rq_order : list N)
| WEnd (t : tid) (how : endkind)
| WTimer (t : tid).

Definition wstep (p : wproc) (e : wev) : res (wproc * list launch) :=
  match e with
  | WMsg m o => process_worker_message p m o
  | WEnd t how => task_end p t how
  | WTimer t => Ok (timer_fire p t, [])
  end.

Definition in_bl (b : list (N * list wtask)) (t : tid) : Prop :=
  exists rq ts x, In (rq, ts) b /\ In x ts /\ wt_id x = t.

Lemma in_backlog_bl p t : in_backlog p t <-> in_bl (p_backlog p) t.
Proof. reflexivity. Qed.

Lemma bl_set_in b rq v k w : In (k, w) (bl_set b rq v) -> (k = rq /\ w = v) \/ In (k, w) b.
Proof.
  induction b as [|[k0 v0] r IH]; cbn [bl_set].
  - intros [H|[]]. inversion H; auto.
  - destruct (N.eqb rq k0) eqn:E1.
    + intros [H|H]; [inversion H; auto | right; right; exact H].
    + destruct (N.ltb rq k0); [intros [H|H]; [inversion H; auto | right; exact H]|].
      intros [H|H]; [right; left; exact H|]. destruct (IH H) as [X|X]; [left; exact X | right; right; exact X].
Qed.

Lemma bl_get_in b rq x : In x (bl_get b rq) -> In (rq, bl_get b rq) b.
Proof.
  induction b as [|[k v] r IH]; cbn [bl_get]; [intros []|].
  destruct (N.eqb rq k) eqn:E; [apply N.eqb_eq in E; subst; intros _; left; reflexivity | intros H; right; apply IH; exact H].
Qed.

Lemma in_bl_set b rq v t : in_bl (bl_set b rq v) t -> in_bl b t \/ exists x, In x v /\ wt_id x = t.
Proof.
  intros (k & ts & x & Hin & Hx & Hid). destruct (bl_set_in _ _ _ _ _ Hin) as [[-> ->]|H].
  - right. eauto.
  - left. exists k, ts, x. auto.
Qed.

Lemma pop_last_in {A} (l : list A) x r : pop_last l = Some (x, r) -> In x l /\ forall y, In y r -> In y l.
Proof.
  revert x r. induction l as [|h t IH]; cbn [pop_last]; intros x r H; [discriminate|].
  destruct t as [|h2 t2]; [inversion H; subst; split; [left; reflexivity | intros y []]|].
  destruct (pop_last (h2 :: t2)) as [[x' r']|] eqn:E; [|discriminate]. inversion H; subst.
  destruct (IH _ _ eq_refl) as [I1 I2]. split; [right; exact I1|].
  intros y [Hy|Hy]; [left; exact Hy | right; apply I2; exact Hy].
Qed.

Definition launches_of (ls : list launch) : list tid := map l_t ls.
Lemma launches_app a b : launches_of (a ++ b) = launches_of a ++ launches_of b.
Proof. unfold launches_of. apply map_app. Qed.

Lemma try_start_task_spec p t rv pre alloc p1 u l st :
  try_start_task p t rv pre alloc = (p1, u, l, st) ->
  p_backlog p1 = p_backlog p /\ launches_of l = [wt_id t].
Proof.
  unfold try_start_task. destruct (tid_mem (wt_id t) (p_failnext p)); intros H; inversion H; subst; split; reflexivity.
Qed.

Lemma prefill_loop_spec fuel : forall p rq rv alloc ups ls p' ups' ls' used,
  prefill_loop fuel p rq rv alloc ups ls = (p', ups', ls', used) ->
  (forall x, In x (launches_of ls') -> In x (launches_of ls) \/ in_bl (p_backlog p) x) /\
  (forall x, in_bl (p_backlog p') x -> in_bl (p_backlog p) x).
Proof.
  induction fuel as [|k IH]; cbn [prefill_loop]; intros p rq rv alloc ups ls p' ups' ls' used H.
  - inversion H; subst. split; [auto | cbn; auto].
  - destruct (pop_last (bl_get (p_backlog p) rq)) as [[t rest]|] eqn:Ep; [|inversion H; subst; split; [auto | cbn; auto]].
    destruct (bl_has (p_backlog p) rq); [|inversion H; subst; split; [auto | cbn; auto]].
    destruct (pop_last_in _ _ _ Ep) as [Ht Hrest].
    assert (Hbt : in_bl (p_backlog p) (wt_id t)).
    { exists rq, (bl_get (p_backlog p) rq), t. split; [eapply bl_get_in; exact Ht | split; [exact Ht | reflexivity]]. }
    assert (Hsub : forall x, in_bl (bl_set (p_backlog p) rq rest) x -> in_bl (p_backlog p) x).
    { intros x Hx. destruct (in_bl_set _ _ _ _ Hx) as [H1|(y & Hy & Hid)]; [exact H1|].
      exists rq, (bl_get (p_backlog p) rq), y. split; [eapply bl_get_in; apply Hrest; exact Hy | split; [apply Hrest; exact Hy | exact Hid]]. }
    destruct (try_start_task (wp_backlog p (bl_set (p_backlog p) rq rest)) t rv true alloc) as [[[p1 u] l] st] eqn:Et.
    destruct (try_start_task_spec _ _ _ _ _ _ _ _ _ Et) as [Eb El]. cbn in Eb.
    destruct st.
    + inversion H; subst. split.
      * intros x Hx. rewrite launches_app, in_app_iff in Hx. destruct Hx as [Hx|Hx]; [left; exact Hx|].
        rewrite El in Hx. destruct Hx as [<-|[]]. right. exact Hbt.
      * intros x Hx. rewrite Eb in Hx. apply Hsub. exact Hx.
    + destruct (IH _ _ _ _ _ _ _ _ _ _ H) as [I1 I2]. rewrite Eb in I1, I2. split.
      * intros x Hx. destruct (I1 x Hx) as [Hl|Hb]; [|right; apply Hsub; exact Hb].
        rewrite launches_app, in_app_iff in Hl. destruct Hl as [Hl|Hl]; [left; exact Hl|].
        rewrite El in Hl. destruct Hl as [<-|[]]. right. exact Hbt.
      * intros x Hx. apply Hsub, I2, Hx.
Qed.

Lemma compute_loop_spec ts : forall p ups ls p' ups' ls',
  compute_loop p ts ups ls = Ok (p', ups', ls') ->
  (forall x, In x (launches_of ls') -> In x (launches_of ls) \/ in_bl (p_backlog p) x \/ In x (map ct_id ts)) /\
  (forall x, in_bl (p_backlog p') x -> in_bl (p_backlog p) x \/ In x (map ct_id ts)).
Proof.
  induction ts as [|ct r IH]; cbn [compute_loop]; intros p ups ls p' ups' ls' H.
  - inversion H; subst. split; auto.
  - destruct (ct_rv ct) as [rv|].
    + apply bind_ok in H. destruct H as (rq & _ & H).
      destruct (negb (N.eqb rv 0)); [discriminate|].
      destruct (res_fits (p_free p) (rq_res rq)).
      * set (t := mkWT (ct_id ct) (ct_inst ct) (ct_rq ct) (ct_tlim ct) (ct_nodes ct)) in *.
        destruct (try_start_task (wp_free p (res_sub (p_free p) (rq_res rq))) t rv false (rq_res rq)) as [[[p1 u] l] st] eqn:Et.
        destruct (try_start_task_spec _ _ _ _ _ _ _ _ _ Et) as [Eb El]. cbn in Eb.
        assert (Hl : forall x, In x (launches_of (ls ++ l)) -> In x (launches_of ls) \/ x = ct_id ct).
        { intros x Hx. rewrite launches_app, in_app_iff in Hx. destruct Hx as [Hx|Hx]; [left; exact Hx|].
          rewrite El in Hx. destruct Hx as [<-|[]]. right. reflexivity. }
        destruct st.
        -- destruct (IH _ _ _ _ _ _ H) as [I1 I2]. rewrite Eb in I1, I2. split.
           ++ intros x Hx. destruct (I1 x Hx) as [H1|[H1|H1]]; [|right; left; exact H1 | right; right; right; exact H1].
              destruct (Hl x H1) as [H2| ->]; [left; exact H2 | right; right; left; reflexivity].
           ++ intros x Hx. destruct (I2 x Hx) as [H1|H1]; [left; exact H1 | right; right; exact H1].
        -- destruct (prefill_loop (S (backlog_size p1)) p1 (ct_rq ct) rv (rq_res rq) (ups ++ u) (ls ++ l)) as [[[p2 u2] l2] used] eqn:Ep.
           destruct (prefill_loop_spec _ _ _ _ _ _ _ _ _ _ _ Ep) as [P1 P2]. rewrite Eb in P1, P2.
           destruct (IH _ _ _ _ _ _ H) as [I1 I2]. split.
           ++ intros x Hx. destruct (I1 x Hx) as [H1|[H1|H1]]; [|right; left; apply P2; exact H1 | right; right; right; exact H1].
              destruct (P1 x H1) as [H2|H2]; [|right; left; exact H2].
              destruct (Hl x H2) as [H3| ->]; [left; exact H3 | right; right; left; reflexivity].
           ++ intros x Hx. destruct (I2 x Hx) as [H1|H1]; [left; apply P2; exact H1 | right; right; exact H1].
      * destruct (IH _ _ _ _ _ _ H) as [I1 I2]. split.
        -- intros x Hx. destruct (I1 x Hx) as [H1|[H1|H1]]; [left; exact H1 | right; left; exact H1 | right; right; right; exact H1].
        -- intros x Hx. destruct (I2 x Hx) as [H1|H1]; [left; exact H1 | right; right; exact H1].
    + destruct (IH _ _ _ _ _ _ H) as [I1 I2]. cbn [p_backlog wp_backlog wp_upd] in I1, I2.
      assert (Hadd : forall x, in_bl (bl_set (p_backlog p) (ct_rq ct) (bl_get (p_backlog p) (ct_rq ct) ++ [mkWT (ct_id ct) (ct_inst ct) (ct_rq ct) (ct_tlim ct) (ct_nodes ct)])) x ->
                in_bl (p_backlog p) x \/ x = ct_id ct).
      { intros x Hx. destruct (in_bl_set _ _ _ _ Hx) as [H1|(y & Hy & Hid)]; [left; exact H1|].
        apply in_app_iff in Hy. destruct Hy as [Hy|[<-|[]]]; [|right; symmetry; exact Hid].
        left. exists (ct_rq ct), (bl_get (p_backlog p) (ct_rq ct)), y. split; [eapply bl_get_in; exact Hy | split; [exact Hy | exact Hid]]. }
      split.
      * intros x Hx. destruct (I1 x Hx) as [H1|[H1|H1]]; [left; exact H1 | | right; right; right; exact H1].
        destruct (Hadd x H1) as [H2| ->]; [right; left; exact H2 | right; right; left; reflexivity].
      * intros x Hx. destruct (I2 x Hx) as [H1|H1]; [|right; right; exact H1].
        destruct (Hadd x H1) as [H2| ->]; [left; exact H2 | right; left; reflexivity].
Qed.

Lemma retract_from_sub order : forall b ids out b' out',
  retract_from b order ids out = (b', out') -> forall x, in_bl b' x -> in_bl b x.
Proof.
  induction order as [|rq r IH]; cbn [retract_from]; intros b ids out b' out' H x Hx; [inversion H; subst; exact Hx|].
  specialize (IH _ _ _ _ _ H x Hx). destruct (bl_has b rq); [|exact IH].
  destruct (in_bl_set _ _ _ _ IH) as [H1|(y & Hy & Hid)]; [exact H1|].
  apply filter_In in Hy. destruct Hy as [Hy _].
  exists rq, (bl_get b rq), y. split; [eapply bl_get_in; exact Hy | split; [exact Hy | exact Hid]].
Qed.

Lemma bl_get_of_in b rq ts : In (rq, ts) b -> bl_has b rq = true.
Proof.
  induction b as [|[k v] r IH]; [intros []|]. cbn [bl_has]. intros [H|H]; [inversion H; subst; rewrite N.eqb_refl; reflexivity|].
  rewrite (IH H). apply orb_true_r.
Qed.

From Coq Require Import Sorting.Sorted.
Definition WInv (p : wproc) : Prop := StronglySorted N.lt (map fst (p_backlog p)).

Lemma sorted_nodup l : StronglySorted N.lt l -> NoDup l.
Proof.
  induction l as [|h t IH]; intros Hs; [constructor|]. inversion Hs as [|? ? Hs' Hall]; subst.
  constructor; [|apply IH; exact Hs']. intros Hin. rewrite Forall_forall in Hall. specialize (Hall _ Hin). lia.
Qed.

Lemma bl_get_unique b rq ts : NoDup (map fst b) -> In (rq, ts) b -> bl_get b rq = ts.
Proof.
  induction b as [|[k v] r IH]; [intros _ []|]. cbn [map fst bl_get]. intros Hn [H|H].
  - inversion H; subst. rewrite N.eqb_refl. reflexivity.
  - inversion Hn as [|? ? Hni Hn']; subst. destruct (N.eqb rq k) eqn:E.
    + apply N.eqb_eq in E. subst. exfalso. apply Hni. apply (in_map fst) in H. exact H.
    + apply IH; assumption.
Qed.

Lemma retract_from_sorted order : forall b ids out b' out',
  retract_from b order ids out = (b', out') -> StronglySorted N.lt (map fst b) ->
  StronglySorted N.lt (map fst b') /\ (forall k, In k (map fst b') -> In k (map fst b)).
Proof.
  induction order as [|rq r IH]; cbn [retract_from]; intros b ids out b' out' H Hs; [inversion H; subst; auto|].
  destruct (bl_has b rq) eqn:Eh.
  - destruct (IH _ _ _ _ _ H (bl_set_sorted _ _ _ Hs)) as [I1 I2]. split; [exact I1|].
    intros k Hk. destruct (bl_set_keys _ _ _ _ (I2 _ Hk)) as [->|Hk']; [|exact Hk'].
    clear -Eh. induction b as [|[k0 v0] r0 IHb]; cbn [bl_has map fst In] in *; [discriminate|].
    destruct (N.eqb rq k0) eqn:E; [apply N.eqb_eq in E; left; auto | right; apply IHb; exact Eh].
  - eapply IH; eassumption.
Qed.

Definition sends (e : wev) (x : tid) : Prop := exists ts o, e = WMsg (DCompute ts) o /\ In x (map ct_id ts).

Lemma cancel_task_sub p t x : in_bl (p_backlog (cancel_task p t)) x -> in_bl (p_backlog p) x.
Proof.
  unfold cancel_task. destruct (run_find (p_running p) t).
  - destruct (fu_find (p_futures p) t) as [[|]|]; auto.
  - cbn. intros (rq & ts & y & Hin & Hy & Hid). apply in_map_iff in Hin. destruct Hin as ([rq0 ts0] & Heq & Hin0).
    cbn in Heq. injection Heq as E1 E2. rewrite <- E2 in Hy. apply filter_In in Hy.
    exists rq0, ts0, y. split; [exact Hin0 | split; [apply Hy | exact Hid]].
Qed.

Lemma cancel_fold_sub ids : forall p x, in_bl (p_backlog (fold_left cancel_task ids p)) x -> in_bl (p_backlog p) x.
Proof.
  induction ids as [|t r IH]; cbn [fold_left]; intros p x H; [exact H|]. apply cancel_task_sub with (t := t). apply IH. exact H.
Qed.

Lemma cancel_task_running p t : p_running (cancel_task p t) = p_running p.
Proof.
  unfold cancel_task. destruct (run_find (p_running p) t); [destruct (fu_find (p_futures p) t) as [[|]|]|]; reflexivity.
Qed.

Lemma wstep_source p e p' ls : wstep p e = Ok (p', ls) ->
  (forall x, In x (launches_of ls) -> in_bl (p_backlog p) x \/ sends e x) /\
  (forall x, in_bl (p_backlog p') x -> in_bl (p_backlog p) x \/ sends e x).
Proof.
  destruct e as [m o|t how|t]; cbn [wstep]; intros H.
  - destruct m; cbn [process_worker_message] in H.
    + apply bind_ok in H. destruct H as ([[p1 ups] ls1] & Hc & H).
      destruct (compute_loop_spec _ _ _ _ _ _ _ Hc) as [C1 C2].
      assert (E : p_backlog p' = p_backlog p1 /\ ls = ls1) by (destruct ups; inversion H; subst; split; reflexivity).
      destruct E as [Eb ->]. rewrite Eb. split.
      * intros x Hx. destruct (C1 x Hx) as [[]|[H1|H1]]; [left; exact H1 | right; exists ts, o; auto].
      * intros x Hx. destruct (C2 x Hx) as [H1|H1]; [left; exact H1 | right; exists ts, o; auto].
    + destruct (negb (n_perm o (map fst (p_backlog p)))); [discriminate|].
      destruct (retract_from (p_backlog p) o ids []) as [b out] eqn:Er.
      assert (E : p_backlog p' = b /\ ls = []) by (destruct ids; inversion H; subst; split; reflexivity).
      destruct E as [Eb ->]. rewrite Eb. split; [intros x []|]. intros x Hx. left. eapply retract_from_sub; eassumption.
    + inversion H; subst. split; [intros x []|]. intros x Hx. left. eapply cancel_fold_sub; exact Hx.
    + inversion H; subst. split; [intros x [] | auto].
    + inversion H; subst. split; [intros x [] | auto].
    + destruct (N.eqb rq _); inversion H; subst. split; [intros x [] | auto].
    + inversion H; subst. split; [intros x [] | auto].
  - unfold task_end in H. destruct (fu_find (p_futures p) t) as [stop|]; [|discriminate].
    destruct (run_find (p_running p) t) as [rv|]; [|discriminate].
    destruct (al_find (p_alloc p) t) as [[|rq alloc]|]; try discriminate.
    match type of H with context [prefill_loop ?f ?p0 rq rv alloc ?u []] =>
      destruct (prefill_loop f p0 rq rv alloc u []) as [[[p1 ups1] ls1] used] eqn:Ep end.
    destruct (prefill_loop_spec _ _ _ _ _ _ _ _ _ _ _ Ep) as [P1 P2]. cbn [p_backlog wp_upd] in P1, P2.
    assert (E : p_backlog p' = p_backlog p1 /\ ls = ls1).
    { destruct (negb used); cbv beta iota zeta in H.
      - match type of H with match ?l with [] => _ | _ => _ end = _ => destruct l end; inversion H; subst; split; reflexivity.
      - destruct ups1; inversion H; subst; split; reflexivity. }
    destruct E as [Eb ->]. rewrite Eb. split.
    + intros x Hx. destruct (P1 x Hx) as [[]|H1]. left. exact H1.
    + intros x Hx. left. apply P2. exact Hx.
  - inversion H; subst. split; [intros x []|]. intros x Hx. left.
    unfold timer_fire in Hx. destruct (fu_find _ t) as [[|]|]; exact Hx.
Qed.

Lemma WInv_step p e p' ls : WInv p -> wstep p e = Ok (p', ls) -> WInv p'.
Proof.
  unfold WInv. intros Hs H.
  (* every step changes the backlog only through [bl_set], filters or not at all *)
  assert (Hpl : forall fuel p rq rv alloc ups ls p' ups' ls' used,
             prefill_loop fuel p rq rv alloc ups ls = (p', ups', ls', used) ->
             StronglySorted N.lt (map fst (p_backlog p)) -> StronglySorted N.lt (map fst (p_backlog p'))).
  { clear. induction fuel as [|k IH]; cbn [prefill_loop]; intros p rq rv alloc ups ls p' ups' ls' used H Hs; [inversion H; subst; exact Hs|].
    destruct (pop_last (bl_get (p_backlog p) rq)) as [[t rest]|]; [|inversion H; subst; exact Hs].
    destruct (bl_has (p_backlog p) rq); [|inversion H; subst; exact Hs].
    destruct (try_start_task (wp_backlog p (bl_set (p_backlog p) rq rest)) t rv true alloc) as [[[p1 u] l] st] eqn:Et.
    destruct (try_start_task_spec _ _ _ _ _ _ _ _ _ Et) as [Eb _]. cbn in Eb.
    destruct st; [inversion H; subst; rewrite Eb; apply bl_set_sorted; exact Hs|].
    eapply IH; [exact H|]. rewrite Eb. apply bl_set_sorted. exact Hs. }
  assert (Hcl : forall ts p ups ls p' ups' ls', compute_loop p ts ups ls = Ok (p', ups', ls') ->
             StronglySorted N.lt (map fst (p_backlog p)) -> StronglySorted N.lt (map fst (p_backlog p'))).
  { clear -Hpl. induction ts as [|ct r IH]; cbn [compute_loop]; intros p ups ls p' ups' ls' H Hs; [inversion H; subst; exact Hs|].
    destruct (ct_rv ct) as [rv|].
    - apply bind_ok in H. destruct H as (rq & _ & H). destruct (negb (N.eqb rv 0)); [discriminate|].
      destruct (res_fits (p_free p) (rq_res rq)); [|eapply IH; [exact H | exact Hs]].
      match type of H with context [try_start_task ?p0 ?t rv false ?al] => destruct (try_start_task p0 t rv false al) as [[[p1 u] l] st] eqn:Et end.
      destruct (try_start_task_spec _ _ _ _ _ _ _ _ _ Et) as [Eb _]. cbn in Eb.
      destruct st; [eapply IH; [exact H | rewrite Eb; exact Hs]|].
      match type of H with context [prefill_loop ?f p1 ?a ?b ?c ?d ?e] => destruct (prefill_loop f p1 a b c d e) as [[[p2 u2] l2] used] eqn:Ep end.
      eapply IH; [exact H|]. eapply Hpl; [exact Ep | rewrite Eb; exact Hs].
    - eapply IH; [exact H|]. cbn. apply bl_set_sorted. exact Hs. }
  destruct e as [m o|t how|t]; cbn [wstep] in H.
  - destruct m; cbn [process_worker_message] in H.
    + apply bind_ok in H. destruct H as ([[p1 ups] ls1] & Hc & H).
      assert (E : p_backlog p' = p_backlog p1) by (destruct ups; inversion H; subst; reflexivity). rewrite E. eapply Hcl; eassumption.
    + destruct (negb (n_perm o (map fst (p_backlog p)))); [discriminate|].
      destruct (retract_from (p_backlog p) o ids []) as [b out] eqn:Er.
      assert (E : p_backlog p' = b) by (destruct ids; inversion H; subst; reflexivity). rewrite E.
      exact (proj1 (retract_from_sorted _ _ _ _ _ _ Er Hs)).
    + inversion H; subst. clear H. revert p Hs. induction ids as [|t r IH]; cbn [fold_left]; intros p Hs; [exact Hs|].
      apply IH. unfold cancel_task. destruct (run_find (p_running p) t); [destruct (fu_find (p_futures p) t) as [[|]|]; exact Hs|].
      cbn. rewrite map_map. cbn. exact Hs.
    + inversion H; subst; exact Hs.
    + inversion H; subst; exact Hs.
    + destruct (N.eqb rq _); inversion H; subst; exact Hs.
    + inversion H; subst; exact Hs.
  - unfold task_end in H. destruct (fu_find (p_futures p) t) as [stop|]; [|discriminate].
    destruct (run_find (p_running p) t) as [rv|]; [|discriminate].
    destruct (al_find (p_alloc p) t) as [[|rq alloc]|]; try discriminate.
    match type of H with context [prefill_loop ?f ?p0 rq rv alloc ?u []] =>
      destruct (prefill_loop f p0 rq rv alloc u []) as [[[p1 ups1] ls1] used] eqn:Ep end.
    pose proof (Hpl _ _ _ _ _ _ _ _ _ _ _ Ep Hs) as Hs1.
    assert (E : p_backlog p' = p_backlog p1).
    { destruct (negb used); cbv beta iota zeta in H.
      - match type of H with match ?l with [] => _ | _ => _ end = _ => destruct l end; inversion H; subst; reflexivity.
      - destruct ups1; inversion H; subst; reflexivity. }
    rewrite E. exact Hs1.
  - inversion H; subst. unfold timer_fire. destruct (fu_find _ t) as [[|]|]; exact Hs.
Qed.

Definition gives_back (p : wproc) (e : wev) (x : tid) : Prop :=
  (exists ids o, e = WMsg (DRetract ids) o /\ tid_mem x ids = true) \/
  (exists ids o, e = WMsg (DCancel ids) o /\ In x ids /\ run_find (p_running p) x = None).

Lemma gives_back_clears p e p' ls x : WInv p -> wstep p e = Ok (p', ls) -> gives_back p e x -> ~ in_bl (p_backlog p') x /\ ls = [].
Proof.
  intros Hs H [(ids & o & -> & Hm)|(ids & o & -> & Hin & Hr)]; cbn [wstep process_worker_message] in H.
  - destruct (negb (n_perm o (map fst (p_backlog p)))) eqn:Ep; [discriminate|]. apply negb_false_iff in Ep.
    destruct (retract_from (p_backlog p) o ids []) as [b out] eqn:Er.
    assert (E : p_backlog p' = b /\ ls = []) by (destruct ids; inversion H; subst; split; reflexivity).
    destruct E as [Eb ->]. split; [|reflexivity]. rewrite Eb.
    destruct (retract_from_sorted _ _ _ _ _ _ Er Hs) as [Hsb Hkeys].
    intros (rq & ts & y & Hin & Hy & Hid).
    assert (Hget : bl_get b rq = ts) by (apply bl_get_unique; [apply sorted_nodup; exact Hsb | exact Hin]).
    assert (Hord : In rq o).
    { unfold n_perm in Ep. apply andb_true_iff in Ep. destruct Ep as [_ Ep]. rewrite forallb_forall in Ep.
      apply n_mem_In. apply Ep. apply Hkeys. apply (in_map fst) in Hin. exact Hin. }
    rewrite <- Hget in Hy. pose proof (retract_removes _ _ _ _ _ _ _ _ Er Hord Hy) as Hf. rewrite Hid in Hf. congruence.
  - inversion H; subst. split; [|reflexivity]. clear H Hs.
    revert p Hr. induction ids as [|t r IH]; [destruct Hin|]. cbn [fold_left]. intros p Hr.
    destruct (tid_dec_local x t) as [->|Hne].
    + intros Hb. apply cancel_fold_sub in Hb. exact (cancel_drops_backlog p t Hr Hb).
    + destruct Hin as [E|Hin]; [congruence|]. apply IH; [exact Hin | rewrite cancel_task_running; exact Hr].
Qed.

Fixpoint wrun (p : wproc) (es : list wev) : res (wproc * list launch) :=
  match es with
  | [] => Ok (p, [])
  | e :: r =>
      do (p1, l1) <- wstep p e;
      do (p2, l2) <- wrun p1 r;
      Ok (p2, l1 ++ l2)
  end.

Lemma WInv_run es : forall p p' ls, WInv p -> wrun p es = Ok (p', ls) -> WInv p'.
Proof.
  induction es as [|e r IH]; cbn [wrun]; intros p p' ls Hs H; [inversion H; subst; exact Hs|].
  apply bind_ok in H. destruct H as ([p1 l1] & H1 & H). apply bind_ok in H. destruct H as ([p2 l2] & H2 & H). inversion H; subst.
  eapply IH; [eapply WInv_step; eassumption | exact H2].
Qed.

(** As long as the server does not send the task again, a task that is not in the backlog is
    never started. *)
Lemma no_start_without_backlog es : forall p p' ls x,
  ~ in_bl (p_backlog p) x -> (forall e, In e es -> ~ sends e x) -> wrun p es = Ok (p', ls) ->
  ~ In x (launches_of ls).
Proof.
  induction es as [|e r IH]; cbn [wrun]; intros p p' ls x Hb Hs H; [inversion H; subst; intros []|].
  apply bind_ok in H. destruct H as ([p1 l1] & H1 & H). apply bind_ok in H. destruct H as ([p2 l2] & H2 & H). inversion H; subst.
  destruct (wstep_source _ _ _ _ H1) as [S1 S2].
  rewrite launches_app, in_app_iff. intros [Hx|Hx].
  - destruct (S1 x Hx) as [X|X]; [exact (Hb X) | exact (Hs e (or_introl eq_refl) X)].
  - eapply IH; [| |exact H2|exact Hx].
    + intros X. destruct (S2 x X) as [Y|Y]; [exact (Hb Y) | exact (Hs e (or_introl eq_refl) Y)].
    + intros e0 He0. apply Hs. right. exact He0.
Qed.

(** C06 / C08 on the worker: from ANY state reached by ANY sequence of events, once the worker has
    given task [x] back (a RetractTasks naming it) or processed a CancelTasks for it while not
    running it, no later event starts [x] - until a ComputeTasks message names [x] again. *)
Theorem no_start_after_giveback (p0 : wproc) es0 p e p1 l1 es p2 ls x :
  WInv p0 -> wrun p0 es0 = Ok (p, l1) ->
  wstep p e = Ok (p1, ls) -> gives_back p e x ->
  (forall e', In e' es -> ~ sends e' x) ->
  forall l2, wrun p1 es = Ok (p2, l2) -> ~ In x (launches_of (ls ++ l2)).
Proof.
  intros H0 Hr0 Hst Hg Hs l2 Hr.
  pose proof (WInv_run _ _ _ _ H0 Hr0) as Hp.
  destruct (gives_back_clears _ _ _ _ _ Hp Hst Hg) as [Hb ->]. cbn [app].
  eapply no_start_without_backlog; eassumption.
Qed.

Lemma WInv_new w rs rqs : WInv (mkWP w [] [] [] [] rs rs [] [] [] rqs [] []).
Proof. constructor. Qed.
