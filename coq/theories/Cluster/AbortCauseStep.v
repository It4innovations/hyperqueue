(** C14 / C03, "tasks are aborted only with a cause": the reactor, and every
    operation that creates no job.

    [AC s ext] is the clean form of the statement for a stretch [ext] of outputs emitted by a piece
    of the server's execution that started in state [s]: for every decomposition
    [ext = pre ++ OEv (EvAborted ts) :: post] and every [x] in [ts],
    (a) [x] is a task of the core of [s] and one of the dependencies [d] the core keeps for it is
        aborted by the same event or fails in the very next output, or
    (b) the job of [x] has a failure limit [m] in [s] and its failure counter in [s] plus the
        number of [EvFailed] events of the job in [pre] exceeds [m].
    [AK s s']: a piece that starts in a state with the proved invariants [W] (DepOrderReact.v)
    appends such a stretch, and changes the jobs as [JE] says.  Proved for [task_failed] - the
    heart: the transitive consumers each have a kept dependency among the consumers or the failing
    task ([recursive_consumers_cause] + the consumer lists mirror the dependency lists, [GD]); the
    second abort comes from the limit - and for everything built on it up to [on_task_update] and
    [on_remove_worker].

    [step_plain]: for a state with the proved invariants ([INV]) and an operation other than a
    submit / open, the outputs of the step satisfy [AC], the jobs change as [JE] says (no job
    appears, limits and ids unchanged, failure counters grow by the [EvFailed] events, no submit
    is answered), and every task of the core after the step was there before with the same
    dependency list ([dsub]). *)
From HQ Require Import Base.Prelude Cluster.Types Cluster.Core Cluster.Reactor Cluster.Worker Cluster.Server Cluster.Sys Cluster.Monitors Cluster.ProofsJob Cluster.ProofsMore Cluster.ProofsTerminal Cluster.ProofsStep Cluster.ProofsFinal Cluster.BijBase Cluster.BijCore Cluster.BijHq Cluster.BijSt Cluster.BijReact Cluster.BijFinal Cluster.ProofsOnce Cluster.StartFinBase Cluster.RejHyp Cluster.InvWFinal Cluster.InvQStep Cluster.InvDBase Cluster.InvDSpec Cluster.InvDRem Cluster.InvDReact Cluster.InvDSched Cluster.InvDHq Cluster.InvDStep Cluster.InvAll Cluster.InvBundle Cluster.DepOrderBase Cluster.DepOrderReact Cluster.DepOrderStep Cluster.ReactSplit Cluster.AbortCauseBase Cluster.AbortCauseJob.
From HQ Require Import Cluster.ModelFacts.
From Coq Require Import ZArith Lia.
Local Open Scope N_scope.
Arguments N.add : simpl never.
Arguments N.sub : simpl never.

Definition AC (s : st) (ext : list out) : Prop :=
  forall pre ts post x, ext = pre ++ OEv (EvAborted ts) :: post -> In x ts ->
    (exists tx d, fm (core_of s) x = Some tx /\ In d (t_deps tx) /\
                  (In d ts \/ exists k post', post = OEv (EvFailed d k) :: post'))
    \/ (exists j m, find_job (jobs s) (fst x) = Some j /\ j_maxfails j = Some m /\ m < j_nfail j + onfailed (fst x) pre).

Definition AK (s s' : st) : Prop :=
  LK s s' /\ (W s -> exists ext, snd s' = snd s ++ ext /\ JE s s' ext /\ AC s ext).

Lemma AC_NA s ext : NA ext -> AC s ext.
Proof. intros A pre ts post x E _. exfalso. apply (NA_in _ ts A). rewrite E. apply in_elt. Qed.

Lemma AK_quiet s s' : LK s s' -> JQ s s' -> AK s s'.
Proof.
  intros L (ext & E & J & A). split; [exact L|]. intros _. exists ext. split; [exact E|]. split; [exact J | apply AC_NA; exact A].
Qed.

Lemma AK_refl s : AK s s.
Proof. apply AK_quiet; [apply LK_refl | apply JQ_refl]. Qed.

Lemma AK_trans s1 s2 s3 : AK s1 s2 -> AK s2 s3 -> AK s1 s3.
Proof.
  intros [L1 A1] [L2 A2]. split; [eapply LK_trans; eassumption|]. intros HW1.
  destruct (L1 HW1) as (HW2 & S12 & _).
  destruct (A1 HW1) as (e1 & E1 & J1 & C1). destruct (A2 HW2) as (e2 & E2 & J2 & C2).
  exists (e1 ++ e2). split; [rewrite E2, E1, app_assoc; reflexivity|]. split; [eapply JE_trans; eassumption|].
  intros pre ts post x E Hx. destruct (app_decomp _ _ _ _ _ E) as [(m & Em & Ep)|(m & Em & Ep)].
  - destruct (C1 pre ts m x Em Hx) as [(tx & d & A & B & C)|R]; [|right; exact R].
    left. exists tx, d. split; [exact A|]. split; [exact B|].
    destruct C as [C|(k & post' & ->)]; [left; exact C|]. right. exists k, (post' ++ e2). rewrite Ep. reflexivity.
  - destruct (C2 m ts post x Ep Hx) as [(tx2 & d & A & B & C)|(j2 & mf & A & B & C)].
    + left. destruct (S12 _ _ A) as (tx1 & A1' & Ed). exists tx1, d. split; [exact A1'|]. split; [rewrite <- Ed; exact B | exact C].
    + right. destruct (je_old _ _ _ J1 _ _ A) as (j1 & Hf1 & Hm1 & _ & Hn1).
      exists j1, mf. split; [exact Hf1|]. split; [congruence|]. rewrite Em, onfailed_app. lia.
Qed.

Lemma JE_start s0 s s' ext : hq_of s0 = hq_of s -> JE s0 s' ext -> JE s s' ext.
Proof.
  intros E [N O C F]. constructor; [exact N | | unfold cnt_of in *; rewrite <- E; exact C | unfold jobs in *; rewrite <- E; exact F].
  unfold jobs in *. rewrite <- E. exact O.
Qed.
Lemma JE_end s s' s'' ext : hq_of s'' = hq_of s' -> JE s s' ext -> JE s s'' ext.
Proof.
  intros E [N O C F]. constructor; [exact N | | unfold cnt_of in *; rewrite E; exact C | exact F].
  unfold jobs in *. rewrite E. exact O.
Qed.
Lemma JQ_start s0 s s' : hq_of s0 = hq_of s -> snd s0 = snd s -> JQ s0 s' -> JQ s s'.
Proof. intros E Es (ext & X & J & A). exists ext. split; [rewrite <- Es; exact X|]. split; [eapply JE_start; eassumption | exact A]. Qed.
Lemma JQ_end s s' s'' : hq_of s'' = hq_of s' -> snd s'' = snd s' -> JQ s s' -> JQ s s''.
Proof. intros E Es (ext & X & J & A). exists ext. split; [rewrite Es; exact X|]. split; [eapply JE_end; eassumption | exact A]. Qed.

Lemma task_failed_AK s w id k s' : task_failed s w id k = Ok s' -> AK s s'.
Proof.
  intros H. split; [eapply LK_task_failed; exact H|]. intros HW.
  destruct HW as [[Hs D] HC Hok HJ].
  apply task_failed_split in H.
  destruct (find_task (c_tasks (core_of s)) id) as [t|] eqn:Ef.
  2:{ subst. exists []. rewrite app_nil_r. split; [reflexivity|]. split; [apply JE_refl | apply AC_NA; reflexivity]. }
  destruct H as (c1 & csm & c2 & c3 & stt & s1 & cancel_ids & Et & Hcs & _ & _ & H4 & H). rewrite Et in Hcs.
  pose proof (recursive_consumers_cause _ t csm Hcs) as Hcause.
  destruct (process_task_failed_AC (st_core s c3) id csm k s1 cancel_ids Hok H4) as (ext & E4 & J4 & P4). cbn [snd st_core] in E4.
  assert (Hsnd : snd s' = snd s1 /\ hq_of s' = hq_of s1).
  { destruct cancel_ids; [subst; split; reflexivity|].
    split; [eapply on_cancel_tasks_snd; exact H | eapply on_cancel_tasks_hq; exact H]. }
  exists ext. split; [rewrite (proj1 Hsnd); exact E4|]. split.
  - eapply JE_end; [exact (proj2 Hsnd)|]. eapply (JE_start (st_core s c3) s); [reflexivity | exact J4].
  - intros pre ts post x E Hx. destruct (P4 pre ts post x E Hx) as [(-> & post' & ->)|R]; [|right; exact R].
    left. destruct (Hcause x Hx) as [Hc|(y & ty & Hy & Ey & Hc)].
    + (* a direct consumer of the failing task *)
      destruct (dx_cons _ _ D _ _ _ Ef Hc) as (ct & Ec & _ & Hd).
      exists ct, id. split; [exact Ec|]. split; [exact Hd|]. right. exists k, post'. reflexivity.
    + (* a consumer of another collected task *)
      destruct (dx_cons _ _ D _ _ _ Ey Hc) as (ct & Ec & _ & Hd).
      exists ct, y. split; [exact Ec|]. split; [exact Hd|]. left. exact Hy.
Qed.

Lemma task_finished_JQ s w id s' b : task_finished s w id = Ok (s', b) -> JQ s s'.
Proof.
  intros H. apply task_finished_split in H. destruct (find_task _ id) as [t|]; [|subst; apply JQ_refl].
  destruct H as (c1 & s1 & c3 & rt & s2 & c4 & _ & Hf & _ & Hr & _ & ->).
  eapply (JQ_end s s1); [exact (process_retracted_hq _ _ _ Hr) | exact (process_retracted_snd _ _ _ Hr)|].
  eapply (JQ_start _ s); [| |eapply process_task_finished_JQ; exact Hf]; reflexivity.
Qed.

Lemma task_running_JQ s w id rv s' b : task_running s w id rv = Ok (s', b) -> JQ s s'.
Proof.
  intros H. apply task_running_split in H. destruct (find_task _ id) as [t|]; [|subst; apply JQ_refl].
  destruct H as (s1 & ws & Q1 & S1 & H2 & _).
  eapply (JQ_start s1 s); [exact Q1 | exact S1 | eapply process_task_started_JQ; exact H2].
Qed.

Lemma AK_apply_one s w u s' n : apply_one s w u = Ok (s', n) -> AK s s'.
Proof.
  intros Hu.
  pose proof (LK_apply_one _ _ _ _ _ Hu) as L.
  destruct u; cbn [apply_one] in Hu.
  - apply AK_quiet; [exact L | eapply task_finished_JQ; exact Hu].
  - apply bind_ok in Hu. destruct Hu as (sx & Hf & Hu). inversion Hu; subst. eapply task_failed_AK; exact Hf.
  - apply AK_quiet; [exact L | eapply task_running_JQ; exact Hu].
  - apply AK_quiet; [exact L | eapply task_running_JQ; exact Hu].
  - apply AK_quiet; [exact L | apply JQ_same; [eapply task_reject_same; exact Hu | eapply task_reject_snd; exact Hu]].
  - apply AK_quiet; [exact L|]. apply bind_ok in Hu. destruct Hu as (sx & Hf & Hu). inversion Hu; subst.
    apply JQ_same; [eapply request_enabled_same; exact Hf|]. unfold request_enabled in Hf. inv_binds Hf. inversion Hf; subst. reflexivity.
Qed.

Lemma AK_on_task_update s w us s' : on_task_update s w us = Ok s' -> AK s s'.
Proof.
  apply (on_task_update_rel AK AK_refl AK_trans AK_apply_one).
  intros x. apply AK_quiet; [apply LK_same_tasks; reflexivity | apply JQ_same; reflexivity].
Qed.

Lemma AK_lost_fail_running l : forall s reason s', lost_fail_running s reason l = Ok s' -> AK s s'.
Proof.
  apply (lost_fail_running_rel AK AK_refl AK_trans).
  - intros s id t Ef. apply AK_quiet; [apply (LK_upd_same s id t _ Ef); [repeat split | reflexivity] | apply JQ_same; reflexivity].
  - intros s id k s' _ H. eapply task_failed_AK; exact H.
Qed.

Print Assumptions task_failed_AK.

(** [on_remove_worker_LK_split] of DepOrderStep.v, with the job-layer frame added. *)
Lemma on_remove_worker_split2 s w reason a p t s' :
  W s -> QA (core_of s) -> WSTMT (core_of s) -> on_remove_worker s w reason a p t = Ok s' ->
  exists s6 s7 running, LK s s6 /\ JQ s s6 /\ lost_fail_running s6 reason running = Ok s7 /\ s' = ask_scheduling s7.
Proof.
  intros HW Q HWS H.
  destruct (on_remove_worker_LK_split _ _ _ _ _ _ _ HW Q HWS H) as (s4 & s6 & s7 & running & Eh & Es & H6 & L6 & H7 & ->).
  exists s6, s7, running. split; [exact L6|]. split; [|split; [exact H7 | reflexivity]].
  eapply (JQ_start (broadcast s4 (DLostWorker w)) s); [exact Eh | exact Es | eapply process_worker_lost_JQ; exact H6].
Qed.

Lemma AK_on_remove_worker s w reason a p t s' :
  QA (core_of s) -> WSTMT (core_of s) -> on_remove_worker s w reason a p t = Ok s' -> AK s s'.
Proof.
  intros Q HWS H. split; [eapply LK_on_remove_worker; eassumption|]. intros HW.
  destruct (on_remove_worker_split2 _ _ _ _ _ _ _ HW Q HWS H) as (s6 & s7 & running & L6 & Q6 & H7 & ->).
  assert (A : AK s (ask_scheduling s7)).
  { eapply AK_trans; [apply AK_quiet; [exact L6 | exact Q6]|].
    eapply AK_trans; [eapply AK_lost_fail_running; exact H7|].
    apply AK_quiet; [apply LK_same_tasks; reflexivity | apply JQ_same; reflexivity]. }
  exact (proj2 A HW).
Qed.

Lemma forallb_launch (f : out -> bool) ls : (forall l, f (OLaunch l) = true) -> forallb f (map OLaunch ls) = true.
Proof. intros H. induction ls as [|l r IH]; [reflexivity|]. cbn [map forallb]. rewrite H, IH. reflexivity. Qed.

Lemma AC_shift s0 s q ext :
  core_of s0 = core_of s -> hq_of s0 = hq_of s -> NA q -> forallb nfb q = true -> AC s ext -> AC s0 (q ++ ext).
Proof.
  intros Ec Eh Aq Fq C pre ts post x E Hx. destruct (app_decomp _ _ _ _ _ E) as [(m & Em & _)|(m & Em & Ep)].
  - exfalso. apply (NA_in _ ts Aq). rewrite Em. apply in_elt.
  - destruct (C m ts post x Ep Hx) as [A|(j & mf & A & B & D)]; [left; rewrite Ec; exact A|].
    right. exists j, mf. unfold jobs in *. rewrite Eh. split; [exact A|]. split; [exact B|].
    rewrite Em, onfailed_app, (onfailed_nf _ _ Fq). lia.
Qed.

Lemma dsub_tasks c c' : c_tasks c' = c_tasks c -> dsub (fm c) (fm c').
Proof. intros E. apply dsub_ext. intros x. unfold fm. rewrite E. reflexivity. Qed.

Lemma find_job_del_some js id k j : find_job (del_job js id) k = Some j -> find_job js k = Some j.
Proof.
  destruct (N.eq_dec k id) as [->|Hne]; [rewrite find_job_del_same; discriminate|].
  rewrite find_job_del by exact Hne. auto.
Qed.

Ltac jq_emit := match goal with |- JQ (?s, []) (?s, [?o]) => exact (JQ_emit (s, []) o eq_refl eq_refl eq_refl) end.

Definition is_creating (o : op) : bool :=
  match o with OpSubmit _ _ _ _ _ _ _ _ | OpSubmitG _ _ _ _ | OpOpen _ => true | _ => false end.

Record PLAIN (s s' : sys) (outs : list out) : Prop := mkPLAIN {
  pl_je : JE (s, []) (s', outs) outs;
  pl_ac : AC (s, []) outs;
  pl_dsub : dsub (fm (s_core s)) (fm (s_core s'))
}.

Lemma PLAIN_quiet s s' outs :
  hq_of (s', outs) = hq_of (s, []) -> forallb nsb outs = true -> forallb nfb outs = true -> NA outs ->
  dsub (fm (s_core s)) (fm (s_core s')) -> PLAIN s s' outs.
Proof. intros E N F A S. constructor; [apply JE_same_ext; assumption | apply AC_NA; exact A | exact S]. Qed.

Lemma PLAIN_JQ s s' outs : JQ (s, []) (s', outs) -> dsub (fm (s_core s)) (fm (s_core s')) -> PLAIN s s' outs.
Proof.
  intros (ext & E & J & A) S. cbn [snd app] in E. subst ext. constructor; [exact J | apply AC_NA; exact A | exact S].
Qed.

Theorem step_plain s o s' outs :
  INV s -> is_creating o = false -> step s o = Ok (s', outs) -> PLAIN s s' outs.
Proof.
  intros HI Hc H. pose proof (INV_W _ HI) as HW.
  assert (HQA : QA (s_core s)).
  { apply QSTMT_QA. destruct (inv_qs _ HI) as (_ & Q1 & Q2 & _). split; assumption. }
  destruct o; try discriminate Hc; cbn [step] in H.
  - (* connect *)
    unfold on_new_worker in H. inversion H; subst. apply PLAIN_quiet; try reflexivity. apply dsub_tasks. reflexivity.
  - (* worker lost *)
    destruct (find_proc _ w); [|discriminate].
    pose proof (AK_on_remove_worker (s, []) _ _ _ _ _ _ HQA (WI_worker_sets_ok _ (inv_w _ HI)) H) as A.
    destruct A as [L A]. destruct (A HW) as (ext & E & J & C). cbn [snd app] in E. subst ext.
    destruct (L HW) as (_ & S & _). constructor; [exact J | exact C | exact S].
  - (* close *)
    unfold handle_close in H.
    destruct (find_job (hq_jobs (s, [])) j) as [jb|] eqn:Ef;
      [|inversion H; subst; apply PLAIN_quiet; try reflexivity; apply dsub_refl].
    destruct (j_open jb) eqn:Eo; [|inversion H; subst; apply PLAIN_quiet; try reflexivity; apply dsub_refl].
    apply bind_ok in H. destruct H as (s1 & H1 & H). inversion H; subst s' outs. clear H.
    apply PLAIN_JQ.
    + assert (Hf : find_job (jobs (s, [])) (j_id jb) = Some jb) by (rewrite (find_job_id _ _ _ Ef); exact Ef).
      match type of H1 with check_termination (emit (hq_set_job _ ?jx) ?o1) _ = _ =>
        eapply (JQ_set_then (s, []) jb jx o1); [exact Hf | reflexivity | apply same_ids_refl | reflexivity | reflexivity | reflexivity | reflexivity | reflexivity|] end.
      eapply JQ_trans; [eapply check_termination_JQ; exact H1 | apply JQ_emit; reflexivity].
    + apply dsub_tasks. destruct (check_termination_jt _ _ _ H1) as [C1 _]. unfold core_same in C1.
      change (c_tasks (core_of s1) = c_tasks (s_core s)). rewrite C1. reflexivity.
  - (* cancel *)
    assert (S : dsub (fm (s_core s)) (fm (s_core s'))).
    { destruct (LK_handle_cancel _ _ _ H HW) as (_ & S & _). exact S. }
    apply PLAIN_JQ; [|exact S]. unfold handle_cancel in H.
    destruct (find_job (hq_jobs (s, [])) j) as [jb|] eqn:Ef; [|inversion H; subst; jq_emit].
    destruct (non_finished_task_ids jb) as [|i0 ir] eqn:En; [inversion H; subst; jq_emit|].
    apply bind_ok in H. destruct H as (s1 & H1 & H). apply bind_ok in H. destruct H as (al & _ & H).
    apply bind_ok in H. destruct H as (s2 & H2 & H). inversion H; subst s' outs. clear H.
    eapply JQ_trans; [apply JQ_same; [eapply on_cancel_tasks_hq; exact H1 | eapply on_cancel_tasks_snd; exact H1]|].
    eapply JQ_trans; [eapply set_cancel_state_JQ; exact H2 | apply JQ_emit; reflexivity].
  - (* forget *)
    unfold handle_forget in H. destruct (find_job _ j) as [jb|] eqn:Ef; [|inversion H; subst; apply PLAIN_quiet; try reflexivity; apply dsub_refl].
    apply bind_ok in H. destruct H as (na & _ & H).
    destruct (negb (j_open jb) && na); inversion H; subst; [|apply PLAIN_quiet; try reflexivity; apply dsub_refl].
    constructor; [|apply AC_NA; reflexivity | apply dsub_refl].
    constructor; [reflexivity | | reflexivity | intros k Hk; exfalso; apply Hk; reflexivity].
    intros k j' Hj'. unfold jobs, hq_of, emit, hq_with in Hj'. cbn [fst s_hq with_hq h_jobs] in Hj'.
    apply find_job_del_some in Hj'. exists j'. split; [exact Hj'|]. split; [reflexivity|]. split; [apply same_ids_refl|]. cbn [onfailed ofailed1]. lia.
  - (* message to a worker *)
    destruct (find_proc _ w) as [p|]; [|discriminate]. destruct (p_down p); [discriminate|].
    inv_binds H. inversion H; subst. apply PLAIN_quiet; [reflexivity | | | | apply dsub_refl].
    + cbn [forallb nsb]. apply forallb_launch. reflexivity.
    + cbn [forallb nfb]. apply forallb_launch. reflexivity.
    + unfold NA. cbn [forallb nab]. apply forallb_launch. reflexivity.
  - (* message from a worker *)
    destruct (find_proc _ w) as [p|]; [|discriminate]. destruct (p_up p) as [|m rest]; [discriminate|].
    destruct m.
    + match type of H with on_task_update ?s1 _ _ = _ => pose proof (AK_on_task_update s1 _ _ _ H) as [L A]; set (sx := s1) in * end.
      assert (HWx : W sx) by (apply (proj1 (W_same_keys (s, []) sx (scr_tasks _ _ eq_refl) eq_refl eq_refl HW))).
      destruct (A HWx) as (ext & E & J & C). cbn [snd sx] in E. subst outs.
      destruct (L HWx) as (_ & S & _).
      constructor; [| apply (AC_shift (s, []) sx); try reflexivity; exact C | exact S].
      eapply JE_trans; [|exact J]. apply JE_same_ext; reflexivity.
    + pose proof H as H0. unfold on_retract_response in H. destruct (retract_response_states _ w ids []) as [c' groups] eqn:Er.
      apply bind_ok in H. destruct H as (s2 & H & H2).
      assert (Eo : outs = snd s2) by (destruct (retract_wakes _ _ _ _); inversion H2; subst; reflexivity).
      pose proof (send_redirected_snd _ _ _ H) as Es. cbn [snd st_core] in Es. rewrite Es in Eo. subst outs.
      apply PLAIN_quiet; try reflexivity.
      * exact (on_retract_response_same _ _ _ _ H0).
      * apply scr_dsub.
        match goal with |- scr _ (s_core s') => change (s_core s') with (core_of (s', [OUp w (URetractResponse ids)])) end.
        match type of H0 with on_retract_response ?s1 _ _ = _ =>
          apply (on_retract_response_scr s1 w ids); exact H0 end.
  - (* scheduling *)
    destruct (c_flag (s_core s)); [|discriminate].
    pose proof (run_scheduling_snd _ _ _ H) as Es. cbn [snd] in Es. subst outs.
    apply PLAIN_quiet; try reflexivity; [exact (run_scheduling_same _ _ _ H)|].
    apply scr_dsub. exact (run_scheduling_scr (s, []) _ _ HQA H).
  - destruct (find_proc _ w) as [p|]; [|discriminate]. inv_binds H. inversion H; subst.
    apply PLAIN_quiet; [reflexivity | | | | apply dsub_refl]; apply forallb_launch; reflexivity.
  - destruct (find_proc _ w) as [p|]; [|discriminate]. inversion H; subst. apply PLAIN_quiet; try reflexivity. apply dsub_refl.
  - inversion H; subst. apply PLAIN_quiet; try reflexivity. apply dsub_refl.
  - inv_binds H. inversion H; subst. apply PLAIN_quiet; try reflexivity. apply dsub_refl.
Qed.

Print Assumptions step_plain.
