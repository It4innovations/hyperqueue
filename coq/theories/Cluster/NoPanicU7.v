(** Protocol invariant, part 7: what the job layer's functions do to the view [jv] of one task
    ([hq_chg]), and the core functions used by several reactor functions ([process_retracted],
    [wake_consumers], [remove_task] ...) as transitions of [SP]. *)
From HQ Require Import Base.Prelude Cluster.Types Cluster.Core Cluster.Reactor Cluster.Worker Cluster.Server Cluster.Sys Cluster.ProofsJob Cluster.ProofsMore Cluster.ProofsTerminal Cluster.ProofsStep Cluster.BijBase Cluster.BijHq Cluster.NoPanicU0 Cluster.NoPanicU1 Cluster.NoPanicU2 Cluster.NoPanicU6.
From HQ Require Import Cluster.ModelFacts.
From Coq Require Import ZArith Lia Sorting.Sorted.
Local Open Scope N_scope.

Lemma jv_jt s t : jv (hq_of s) t = option_map (fun l => jt_find l (snd t)) (jt s (fst t)).
Proof. unfold jv, jt. destruct (find_job (h_jobs (hq_of s)) (fst t)); reflexivity. Qed.

Lemma hq_chg_of_jt (P : tid -> Prop) s s' :
  h_counter (hq_of s') = h_counter (hq_of s) ->
  (forall id, (jt s id = None /\ jt s' id = None) \/
              exists l l', jt s id = Some l /\ jt s' id = Some l' /\
                           forall k, (~ P (id, k) -> jt_find l' k = jt_find l k) /\ (jt_find l k = None <-> jt_find l' k = None)) ->
  hq_chg P (hq_of s) (hq_of s').
Proof.
  intros Hc H. split; [exact Hc|]. intros t. rewrite !jv_jt.
  destruct (H (fst t)) as [[E1 E2]|(l & l' & E1 & E2 & Hk)]; rewrite E1, E2; cbn [option_map].
  - repeat split; auto.
  - destruct (Hk (snd t)) as [A B]. split; [|split].
    + intros HN. f_equal. apply A. destruct t; exact HN.
    + split; discriminate.
    + split; intros X; injection X as Y; [rewrite (proj1 B Y) | rewrite (proj2 B Y)]; reflexivity.
Qed.

Lemma jt_same_chg s s' : h_counter (hq_of s') = h_counter (hq_of s) -> (forall id, jt s' id = jt s id) ->
  hq_chg (fun _ => False) (hq_of s) (hq_of s').
Proof.
  intros Hc H. apply hq_chg_of_jt; [exact Hc|]. intros id. rewrite H. destruct (jt s id) as [l|]; [right | left; auto].
  exists l, l. repeat split; auto.
Qed.

Lemma hq_counter_set s j : h_counter (hq_of (hq_set_job s j)) = h_counter (hq_of s).
Proof. reflexivity. Qed.

Lemma set_one_chg s s' (t : tid) j l' v :
  h_counter (hq_of s') = h_counter (hq_of s) ->
  jt s (fst t) = Some (j_tasks j) -> jt_find (j_tasks j) (snd t) <> None ->
  l' = jt_set (j_tasks j) (snd t) v ->
  (forall id, jt s' id = if N.eqb id (fst t) then Some l' else jt s id) ->
  hq_chg (eq t) (hq_of s) (hq_of s') /\ jv (hq_of s') t = Some (Some v).
Proof.
  intros Hc Ej Hf -> E. split.
  - apply hq_chg_of_jt; [exact Hc|]. intros id. rewrite E. destruct (N.eqb id (fst t)) eqn:E1.
    + apply N.eqb_eq in E1. subst id. right. exists (j_tasks j), (jt_set (j_tasks j) (snd t) v). split; [exact Ej|]. split; [reflexivity|].
      intros k. rewrite jt_find_set. destruct (N.eqb k (snd t)) eqn:E2.
      * apply N.eqb_eq in E2. subst k. split; [intros HN; exfalso; apply HN; destruct t; reflexivity|]. split; [intros X; contradiction | discriminate].
      * split; [reflexivity | tauto].
    + destruct (jt s id) as [l|]; [right; exists l, l; repeat split; auto | left; auto].
  - rewrite jv_jt, E, N.eqb_refl. cbn [option_map]. rewrite jt_find_set, N.eqb_refl. reflexivity.
Qed.

Lemma check_termination_chg s jid s' : check_termination s jid = Ok s' -> hq_chg (fun _ => False) (hq_of s) (hq_of s').
Proof.
  intros H. destruct (check_termination_jt _ _ _ H) as [_ J]. apply jt_same_chg; [|exact J].
  unfold check_termination in H. apply bind_ok in H. destruct H as (j & _ & H). apply bind_ok in H. destruct H as (na & _ & H).
  destruct na; [destruct (j_open j)|]; inversion H; subst; reflexivity.
Qed.

Lemma set_same_chg s s' jid l :
  h_counter (hq_of s') = h_counter (hq_of s) -> jt s jid = Some l ->
  (forall id, jt s' id = if N.eqb id jid then Some l else jt s id) ->
  hq_chg (fun _ => False) (hq_of s) (hq_of s').
Proof.
  intros Hc El E. apply jt_same_chg; [exact Hc|]. intros id. rewrite E.
  destruct (N.eqb id jid) eqn:E1; [apply N.eqb_eq in E1; subst id; symmetry; exact El | reflexivity].
Qed.

Lemma process_task_started_jt s t i ws rv s' : process_task_started s t i ws rv = Ok s' ->
  exists j v l', jt s (fst t) = Some (j_tasks j) /\ jt_find (j_tasks j) (snd t) = Some v /\
    h_counter (hq_of s') = h_counter (hq_of s) /\
    (forall id, jt s' id = if N.eqb id (fst t) then Some l' else jt s id) /\
    ((v = JW /\ l' = jt_set (j_tasks j) (snd t) JR) \/ (v <> JW /\ l' = j_tasks j)).
Proof.
  unfold process_task_started. intros H. apply bind_ok in H. destruct H as (j & Hj & H).
  destruct (jt_get _ _ _ _ Hj) as [Ej Eid].
  destruct (jt_find (j_tasks j) (snd t)) as [v|] eqn:Ef; [|discriminate]. injection H as <-.
  exists j, v, (match v with JW => jt_set (j_tasks j) (snd t) JR | _ => j_tasks j end).
  split; [exact Ej|]. split; [exact Ef|]. split; [reflexivity|]. split.
  - intros id. rewrite jt_emit, jt_set_job. destruct v; cbn [j_id job_upd j_tasks]; rewrite Eid; reflexivity.
  - destruct v; [left; split; reflexivity | right ..]; (split; [discriminate | reflexivity]).
Qed.

Lemma process_task_started_chg s t i ws rv s' : process_task_started s t i ws rv = Ok s' ->
  hq_chg (eq t) (hq_of s) (hq_of s') /\
  (jv (hq_of s) t = Some (Some JW) \/ jv (hq_of s) t = Some (Some JR) -> jv (hq_of s') t = Some (Some JR)).
Proof.
  intros H. destruct (process_task_started_jt _ _ _ _ _ _ H) as (j & v & l' & Ej & Ef & Hc & Hjt & Hl).
  destruct Hl as [[-> ->]|[Hv ->]].
  - destruct (set_one_chg s s' t j (jt_set (j_tasks j) (snd t) JR) JR Hc Ej) as [A B]; [congruence | reflexivity | exact Hjt |].
    split; [exact A | intros _; exact B].
  - pose proof (set_same_chg s s' _ _ Hc Ej Hjt) as [_ C]. split.
    + eapply hq_chg_weaken; [|exact (set_same_chg s s' _ _ Hc Ej Hjt)]. intros t0 [].
    + rewrite (proj1 (C t) (fun F => F)), jv_jt, Ej. cbn [option_map]. rewrite Ef.
      intros [X|X]; [injection X as X; contradiction | exact X].
Qed.

Lemma set_one_term_chg s t j j' o v s' :
  jt s (fst t) = Some (j_tasks j) -> j_id j = fst t -> jt_find (j_tasks j) (snd t) <> None ->
  j_id j' = j_id j -> j_tasks j' = jt_set (j_tasks j) (snd t) v ->
  check_termination (emit (hq_set_job s j') o) (fst t) = Ok s' -> hq_chg (eq t) (hq_of s) (hq_of s').
Proof.
  intros Ej Eid Hf I1 I2 H.
  eapply hq_chg_trans; [|eapply hq_chg_weaken; [|exact (check_termination_chg _ _ _ H)]; intros t0 []].
  destruct (set_one_chg s (emit (hq_set_job s j') o) t j (jt_set (j_tasks j) (snd t) v) v eq_refl Ej Hf eq_refl) as [A _]; [|exact A].
  intros id. rewrite jt_emit, jt_set_job, I1, I2, Eid. reflexivity.
Qed.

Lemma process_task_finished_chg s t s' : process_task_finished s t = Ok s' ->
  jv (hq_of s) t = Some (Some JR) /\ hq_chg (eq t) (hq_of s) (hq_of s').
Proof.
  unfold process_task_finished. intros H. apply bind_ok in H. destruct H as (j & Hj & H).
  destruct (jt_get _ _ _ _ Hj) as [Ej Eid].
  destruct (jt_find (j_tasks j) (snd t)) as [v|] eqn:Ef; [|discriminate]. destruct v; try discriminate.
  apply bind_ok in H. destruct H as (nr & _ & H).
  split; [rewrite jv_jt, Ej; cbn; rewrite Ef; reflexivity|].
  eapply (set_one_term_chg s t j); [exact Ej | exact Eid | congruence | | | exact H]; reflexivity.
Qed.

Lemma mark_tasks_found target site ids : forall j j', mark_tasks j ids target site = Ok j' ->
  forall t, In t ids -> jt_find (j_tasks j) (snd t) <> None.
Proof.
  induction ids as [|t0 r IH]; cbn [mark_tasks]; intros j j' H t Hin; [destruct Hin|].
  destruct (negb (N.eqb (fst t0) (j_id j))); [discriminate|].
  destruct (jt_find (j_tasks j) (snd t0)) as [v|] eqn:Ef; [|discriminate].
  destruct Hin as [<-|Hin]; [congruence|].
  assert (Hstep : forall j1, j_tasks j1 = jt_set (j_tasks j) (snd t0) target -> mark_tasks j1 r target site = Ok j' ->
            jt_find (j_tasks j) (snd t) <> None).
  { intros j1 Ht H1. pose proof (IH _ _ H1 t Hin) as Hn. rewrite Ht, jt_find_set in Hn.
    destruct (N.eqb (snd t) (snd t0)) eqn:E; [apply N.eqb_eq in E; rewrite E; congruence | exact Hn]. }
  destruct v; try discriminate.
  - eapply Hstep; [|exact H]. reflexivity.
  - apply bind_ok in H. destruct H as (nr & _ & H). eapply Hstep; [|exact H]. reflexivity.
Qed.

Lemma abort_tasks_chg s jid ids s' : abort_tasks s jid ids = Ok s' -> hq_chg (fun y => In y ids) (hq_of s) (hq_of s').
Proof.
  unfold abort_tasks. destruct ids as [|i0 ir] eqn:Eids; [intros H; inversion H; subst; apply hq_chg_refl|].
  rewrite <- Eids. intros H. apply bind_ok in H. destruct H as (j & Hj & H). apply bind_ok in H. destruct H as (j1 & Hm & H).
  destruct (jt_get _ _ _ _ Hj) as [Ej Eid].
  destruct (mark_tasks_find _ _ _ _ _ Hm) as (M1 & M2 & M3). pose proof (mark_tasks_found _ _ _ _ _ Hm) as M4.
  pose proof (check_termination_chg _ _ _ H) as C. destruct (check_termination_jt _ _ _ H) as [_ J1].
  eapply hq_chg_trans; [|eapply hq_chg_weaken; [|exact C]; intros t0 []].
  match type of H with check_termination ?s1 _ = _ => apply (hq_chg_of_jt _ s s1); [reflexivity|] end.
  intros id. rewrite jt_emit, jt_set_job. cbn [j_id job_upd j_tasks]. rewrite M1, Eid.
  destruct (N.eqb id jid) eqn:E1.
  - apply N.eqb_eq in E1. subst id. right. exists (j_tasks j), (j_tasks j1). split; [exact Ej|]. split; [reflexivity|].
    rewrite Eid in M2. intros k. rewrite M3. pose proof (snd_mem_in k ids jid M2) as Hmem.
    destruct (snd_mem k ids) eqn:Em.
    + split; [intros HN; exfalso; apply HN; apply Hmem; reflexivity|].
      assert (Hin : In (jid, k) ids) by (apply Hmem; reflexivity). pose proof (M4 _ Hin) as Hf. cbn in Hf.
      split; [intros X; contradiction | discriminate].
    + split; [reflexivity | tauto].
  - destruct (jt s id) as [l|]; [right; exists l, l; repeat split; auto | left; auto].
Qed.

Lemma process_task_failed_chg s t aborted k s' ids : process_task_failed s t aborted k = Ok (s', ids) ->
  hq_chg (fun y => y = t \/ In y aborted \/ In y ids) (hq_of s) (hq_of s').
Proof.
  unfold process_task_failed. intros H.
  apply bind_ok in H. destruct H as (s1 & H1 & H). apply bind_ok in H. destruct H as (j & Hj & H).
  apply bind_ok in H. destruct H as (j1 & Hj1 & H). apply bind_ok in H. destruct H as (s2 & H2 & H).
  apply bind_ok in H. destruct H as (j2 & Hj2 & H).
  destruct (jt_get _ _ _ _ Hj) as [Ej Eid].
  assert (A1 : hq_chg (fun y => y = t \/ In y aborted \/ In y ids) (hq_of s) (hq_of s1)).
  { eapply hq_chg_weaken; [|eapply abort_tasks_chg; exact H1]. cbv beta. auto. }
  assert (A2 : hq_chg (fun y => y = t \/ In y aborted \/ In y ids) (hq_of s1) (hq_of s2)).
  { destruct (jt_find (j_tasks j) (snd t)) as [v|] eqn:Ef; [|discriminate].
    assert (Hj1' : j_id j1 = j_id j /\ j_tasks j1 = jt_set (j_tasks j) (snd t) JX).
    { destruct v; try discriminate; [injection Hj1 as <-; split; reflexivity|].
      apply bind_ok in Hj1. destruct Hj1 as (nr & _ & Hj1). injection Hj1 as <-; split; reflexivity. }
    eapply hq_chg_weaken; [|eapply (set_one_term_chg s1 t j j1); [exact Ej | exact Eid | congruence | apply Hj1' | apply Hj1' | exact H2]].
    cbv beta. intros y <-. left. reflexivity. }
  assert (A12 := hq_chg_trans _ _ _ _ A1 A2).
  destruct (j_maxfails j2) as [mf|]; [|inversion H; subst; exact A12].
  destruct (N.ltb mf (j_nfail j2)); [|inversion H; subst; exact A12].
  apply bind_ok in H. destruct H as (s3 & H3 & H). inversion H; subst.
  eapply hq_chg_trans; [exact A12|]. eapply hq_chg_weaken; [|eapply abort_tasks_chg; exact H3]. cbv beta. auto.
Qed.

(** * Core frames: the visible tasks of the new core are tasks of the old core with the same view data *)
Record CF (X : tid -> bool) (c c' : core) : Prop := mkCF {
  cf_sorted : tsorted c -> tsorted c';
  cf_rqs : c_rqs c' = c_rqs c;
  cf_red : forall r, In r (c_redirects c') -> In r (c_redirects c);
  cf_tasks : forall y t', find_task (c_tasks c') y = Some t' -> X y = false ->
             exists t, find_task (c_tasks c) y = Some t /\ nstate (t_state t') = nstate (t_state t) /\ t_rq t' = t_rq t;
  cf_sub : forall y t', find_task (c_tasks c') y = Some t' -> find_task (c_tasks c) y <> None
}.

Lemma CF_refl X c : CF X c c.
Proof. constructor; auto. - intros y t' H _. exists t'. auto. - intros y t' H. congruence. Qed.
Lemma CF_trans X a b c : CF X a b -> CF X b c -> CF X a c.
Proof.
  intros [A1 A2 A3 A4 A5] [B1 B2 B3 B4 B5]. constructor; auto; try congruence.
  - intros y t' H HX. destruct (B4 _ _ H HX) as (t1 & H1 & E1 & E2). destruct (A4 _ _ H1 HX) as (t0 & H0 & F1 & F2).
    exists t0. repeat split; congruence.
  - intros y t' H. destruct (find_task (c_tasks b) y) as [t1|] eqn:E; [eapply A5; exact E | exfalso; exact (B5 _ _ H E)].
Qed.
Lemma CF_tasks_same X c c' : c_tasks c' = c_tasks c -> c_rqs c' = c_rqs c -> (forall r, In r (c_redirects c') -> In r (c_redirects c)) -> CF X c c'.
Proof.
  intros Et Er Hr. constructor; auto.
  - unfold tsorted. rewrite Et. auto.
  - intros y t' H _. rewrite Et in H. exists t'. auto.
  - intros y t' H. rewrite Et in H. congruence.
Qed.

Lemma SP_CF X X' s pum pd c' : SP X s pum pd -> CF X' (core_of s) c' -> (forall y, X' y = false -> X y = false) -> SP X' (st_core s c') pum pd.
Proof.
  intros H [C1 C2 C3 C4 C5] HX. apply (SP_core X X' s pum pd c' H); auto.
  - apply C1. exact (sp_cs _ _ _ _ H).
  - intros y t' Hy HX'. destruct (C4 _ _ Hy HX') as (t & A & B & C). exists t. repeat split; auto.
Qed.

Lemma del_redirect_in rs t r : In r (del_redirect rs t) -> In r rs.
Proof.
  induction rs as [|[k v] rest IH]; cbn [del_redirect]; [auto|]. destruct (tid_eqb t k); [intros H; right; exact H|].
  intros [H|H]; [left; exact H | right; apply IH; exact H].
Qed.

Lemma CF_upd_task X c t t' : find_task (c_tasks c) (t_id t') = Some t ->
  (X (t_id t') = false -> nstate (t_state t') = nstate (t_state t) /\ t_rq t' = t_rq t) -> CF X c (upd_task c t').
Proof.
  intros Hf Hs. constructor; cbn [upd_task with_tasks c_tasks c_rqs c_redirects]; auto.
  - unfold tsorted. cbn [upd_task with_tasks c_tasks]. apply set_task_sorted.
  - intros y t1 H HX. rewrite find_set_task in H. destruct (tid_eqb y (t_id t')) eqn:E.
    + apply tid_eqb_eq in E. subst y. inversion H; subst t1. exists t. destruct (Hs HX). auto.
    + exists t1. auto.
  - intros y t1 H. rewrite find_set_task in H. destruct (tid_eqb y (t_id t')) eqn:E; [apply tid_eqb_eq in E; subst y; congruence | congruence].
Qed.

Lemma CF_del_task X c id : tsorted c -> CF X c (with_tasks c (del_task (c_tasks c) id)).
Proof.
  intros Hs. constructor; cbn [with_tasks c_tasks c_rqs c_redirects]; auto.
  - intros _. unfold tsorted. cbn [with_tasks c_tasks]. apply del_task_sorted. exact Hs.
  - intros y t' H _. rewrite (find_del_task _ _ _ Hs) in H. destruct (tid_eqb y id); [discriminate|]. exists t'. auto.
  - intros y t' H. rewrite (find_del_task _ _ _ Hs) in H. destruct (tid_eqb y id); [discriminate | congruence].
Qed.

Lemma rcf_find deps : forall ts cid ts', remove_consumer_from ts deps cid = Ok ts' ->
  (StronglySorted tlt (map t_id ts) -> StronglySorted tlt (map t_id ts')) /\
  forall y, (find_task ts' y = None <-> find_task ts y = None) /\
            forall t', find_task ts' y = Some t' -> exists t, find_task ts y = Some t /\ t_state t' = t_state t /\ t_rq t' = t_rq t.
Proof.
  induction deps as [|d r IH]; cbn [remove_consumer_from]; intros ts cid ts' H.
  - inversion H; subst. split; [auto|]. intros y. split; [tauto|]. intros t' Ht. exists t'. auto.
  - destruct (find_task ts d) as [input|] eqn:Ef; [|eapply IH; exact H].
    destruct (tid_mem cid (t_consumers input)); [|discriminate].
    destruct (IH _ _ _ H) as [S1 F1]. destruct (find_task_some _ _ _ Ef) as [_ Eid]. split.
    + intros Hs. apply S1. apply set_task_sorted. exact Hs.
    + intros y. destruct (F1 y) as [N1 T1]. rewrite find_set_task in N1, T1. cbn [with_consumers t_id] in N1, T1. rewrite Eid in N1, T1.
      destruct (tid_eqb y d) eqn:E.
      * apply tid_eqb_eq in E. subst y. split; [rewrite N1, Ef; split; discriminate|].
        intros t' Ht. destruct (T1 _ Ht) as (t0 & E0 & A & B). inversion E0; subst t0. exists input. auto.
      * split; [exact N1 | exact T1].
Qed.

Lemma remove_task_CF X c id c' stt : tsorted c -> remove_task c id = Ok (c', stt) ->
  CF X c c' /\ find_task (c_tasks c') id = None /\ exists t, find_task (c_tasks c) id = Some t /\ stt = t_state t.
Proof.
  intros Hs H. unfold remove_task in H. destruct (find_task (c_tasks c) id) as [t|] eqn:Ef; [|discriminate].
  enough (E : (CF X c c' /\ find_task (c_tasks c') id = None) /\ stt = t_state t) by (destruct E as [[F N] ->]; eauto).
  (* the task is deleted first; what follows edits queues and consumer lists only *)
  set (c1 := with_tasks c (del_task (c_tasks c) id)) in *.
  assert (Q1 : CF X c c1 /\ find_task (c_tasks c1) id = None).
  { split; [apply CF_del_task; exact Hs|]. cbn [c1 with_tasks c_tasks]. rewrite (find_del_task _ _ _ Hs), tid_eqb_refl. reflexivity. }
  destruct (t_state t) as [n| | | | | |]; try (injection H as <- <-; split; [exact Q1 | reflexivity]).
  apply bind_ok in H. destruct H as (c2 & H2 & H).
  assert (Q2 : CF X c c2 /\ find_task (c_tasks c2) id = None).
  { destruct (N.eqb n 0); [|injection H2 as <-; exact Q1].
    apply bind_ok in H2. destruct H2 as (q & _ & H2). apply bind_ok in H2. destruct H2 as (q' & _ & H2). injection H2 as <-.
    destruct Q1 as [F1 N1]. split; [eapply CF_trans; [exact F1 | apply CF_tasks_same; auto] | exact N1]. }
  destruct (N.ltb 0 n); [|injection H as <- <-; split; [exact Q2 | reflexivity]].
  apply bind_ok in H. destruct H as (ts & Hr & H). injection H as <- <-. destruct (rcf_find _ _ _ _ Hr) as [S3 F3]. destruct Q2 as [F2 N2].
  split; [split|reflexivity].
  - eapply CF_trans; [exact F2|]. constructor; cbn [with_tasks c_tasks c_rqs c_redirects]; auto.
    + intros y t' Ht _. destruct (proj2 (F3 y) _ Ht) as (t0 & E0 & A & B). exists t0. rewrite A. auto.
    + intros y t' Ht E. apply (proj1 (F3 y)) in E. congruence.
  - cbn [with_tasks c_tasks]. apply (proj1 (F3 id)). exact N2.
Qed.

Lemma CF_sorted_after X c c' : CF X c c' -> tsorted c -> tsorted c'.
Proof. intros [A _ _ _ _]. exact A. Qed.
Lemma CF_absent X c c' x : CF X c c' -> find_task (c_tasks c) x = None -> find_task (c_tasks c') x = None.
Proof. intros F N. destruct (find_task (c_tasks c') x) as [t'|] eqn:E; [|reflexivity]. exfalso. exact (cf_sub _ _ _ F _ _ E N). Qed.

Lemma remove_waiting_consumers_CF X l : forall c c', tsorted c -> remove_waiting_consumers c l = Ok c' ->
  CF X c c' /\ forall x, In x l -> find_task (c_tasks c') x = None.
Proof.
  induction l as [|x r IH]; cbn [remove_waiting_consumers]; intros c c' Hs H; [inversion H; subst; split; [apply CF_refl | intros x []]|].
  apply bind_ok in H. destruct H as ([c1 stt] & H1 & H). destruct (remove_task_CF X _ _ _ _ Hs H1) as (F1 & N1 & _).
  destruct stt; try discriminate. destruct (IH _ _ (CF_sorted_after _ _ _ F1 Hs) H) as [F2 N2].
  split; [eapply CF_trans; eassumption|]. intros y [<-|Hy]; [exact (CF_absent _ _ _ _ F2 N1) | apply N2; exact Hy].
Qed.

Lemma remove_tasks_batched_CF X l : forall c c', tsorted c -> remove_tasks_batched c l = Ok c' ->
  CF X c c' /\ forall x, In x l -> find_task (c_tasks c') x = None.
Proof.
  induction l as [|x r IH]; cbn [remove_tasks_batched]; intros c c' Hs H; [inversion H; subst; split; [apply CF_refl | intros x []]|].
  apply bind_ok in H. destruct H as ([c1 stt] & H1 & H). destruct (remove_task_CF X _ _ _ _ Hs H1) as (F1 & N1 & _).
  destruct (IH _ _ (CF_sorted_after _ _ _ F1 Hs) H) as [F2 N2].
  split; [eapply CF_trans; eassumption|]. intros y [<-|Hy]; [exact (CF_absent _ _ _ _ F2 N1) | apply N2; exact Hy].
Qed.

Lemma try_remove_redirection_frame3 c t c' : try_remove_redirection c t = Ok c' ->
  c_tasks c' = c_tasks c /\ c_rqs c' = c_rqs c /\ forall r, In r (c_redirects c') -> In r (c_redirects c).
Proof.
  unfold try_remove_redirection. intros H. destruct (find_redirect (c_redirects c) (t_id t)) as [[w rv]|].
  - apply bind_ok in H. destruct H as (wk & _ & H). apply bind_ok in H. destruct H as (rq & _ & H). apply bind_ok in H. destruct H as (wk' & _ & H).
    injection H as <-. split; [reflexivity|]. split; [reflexivity|]. cbn. intros r. apply del_redirect_in.
  - apply bind_ok in H. destruct H as (q & _ & H). apply bind_ok in H. destruct H as (q' & _ & H). injection H as <-. auto.
Qed.
Lemma try_remove_redirection_CF X c t c' : try_remove_redirection c t = Ok c' -> CF X c c'.
Proof. intros H. destruct (try_remove_redirection_frame3 _ _ _ H) as (Et & Er & Hr). apply CF_tasks_same; assumption. Qed.

Lemma reset_mn_workers_CF X ws : forall c id c', reset_mn_workers c ws id = Ok c' -> CF X c c'.
Proof.
  induction ws as [|w r IH]; cbn [reset_mn_workers]; intros c id c' H; [inversion H; subst; apply CF_refl|].
  apply bind_ok in H. destruct H as (wk & _ & H). destruct (w_assign wk); [discriminate|]. destruct (tid_eqb t id); [|discriminate].
  eapply CF_trans; [|eapply IH; exact H]. apply CF_tasks_same; auto.
Qed.
Lemma reset_mn_all_CF X ws : forall c c', reset_mn_all c ws = Ok c' -> CF X c c'.
Proof.
  induction ws as [|w r IH]; cbn [reset_mn_all]; intros c c' H; [inversion H; subst; apply CF_refl|].
  apply bind_ok in H. destruct H as (wk & _ & H). eapply CF_trans; [|eapply IH; exact H]. apply CF_tasks_same; auto.
Qed.

Lemma wake_consumers_CF X csm : forall c ret c' ret', wake_consumers c csm ret = Ok (c', ret') -> CF X c c'.
Proof.
  induction csm as [|x r IH]; cbn [wake_consumers]; intros c ret c' ret' H; [inversion H; subst; apply CF_refl|].
  apply bind_ok in H. destruct H as (t & Ht & H). unfold get_task in Ht. destruct (find_task (c_tasks c) x) as [t0|] eqn:Ef; [|discriminate]. inversion Ht; subst t0.
  destruct (find_task_some _ _ _ Ef) as [_ Eid].
  destruct (t_state t) as [n| | | | | |] eqn:Est; try discriminate. destruct (N.eqb n 0); [discriminate|].
  assert (F1 : CF X c (upd_task c (with_state t (Waiting (n - 1))))).
  { apply (CF_upd_task X c t); [cbn [with_state t_id]; rewrite Eid; exact Ef|]. intros _. cbn [with_state t_state t_rq]. rewrite Est. split; reflexivity. }
  destruct (N.eqb (n - 1) 0).
  - apply bind_ok in H. destruct H as ([qs ret1] & _ & H). eapply CF_trans; [exact F1|]. eapply CF_trans; [|eapply IH; exact H]. apply CF_tasks_same; auto.
  - eapply CF_trans; [exact F1 | eapply IH; exact H].
Qed.
