(** Two further facts of every reachable state:
      MNE - no task is [RunningMN []];   RWA - the worker of a [Retracting w] task is connected.
    Technique: a relation [Rm c c' L] between the core before and after a function - every task of
    [c'] has the id and state of a task of [c], or a state that is fine in [c'] ("okst"), or its id
    is in [L] (multi-node placements of the running scheduling round); connected workers stay
    connected.  No invariant is needed for the relation.  This file: the reactor, the server side
    that keeps all workers, scheduling; InvWX3.v: worker loss, client requests, [Sys.step]. *)
From HQ Require Import Base.Prelude Cluster.Types Cluster.Core Cluster.Reactor Cluster.Worker Cluster.Server Cluster.Sys Cluster.ProofsJob Cluster.ProofsMore Cluster.ProofsStep Cluster.BijBase Cluster.BijCore Cluster.BijHq Cluster.BijSt Cluster.InvWBase.
From HQ Require Import Cluster.ReactSplit.
From HQ Require Import Cluster.StepShape.
From HQ Require Import Cluster.ModelFacts.
From Coq Require Import ZArith Lia Sorting.Sorted.
Local Open Scope N_scope.

Arguments N.add : simpl never.
Arguments N.sub : simpl never.

Definition MNE (c : core) : Prop := forall t, In t (c_tasks c) -> t_state t <> RunningMN [].
Definition RWA (c : core) : Prop :=
  forall t w, In t (c_tasks c) -> t_state t = Retracting w -> exists wk, find_worker (c_workers c) w = Some wk.

Definition okst (c : core) (s : tstate) : Prop :=
  match s with
  | RunningMN ws => ws <> [] /\ NoDup ws
  | Retracting w => find_worker (c_workers c) w <> None
  | _ => True
  end.
Definition MND (c : core) : Prop := forall t ws, In t (c_tasks c) -> t_state t = RunningMN ws -> NoDup ws.
Definition J (c : core) : Prop := forall t, In t (c_tasks c) -> okst c (t_state t).

Lemma J_MNE_RWA c : J c <-> MNE c /\ RWA c /\ MND c.
Proof.
  split.
  - intros H. split; [|split].
    + intros t Hin E. specialize (H t Hin). rewrite E in H. apply H. reflexivity.
    + intros t w Hin E. specialize (H t Hin). rewrite E in H. cbn in H.
      destruct (find_worker (c_workers c) w) as [wk|]; [eauto | congruence].
    + intros t ws Hin E. specialize (H t Hin). rewrite E in H. apply H.
  - intros (H1 & H2 & H3) t Hin. destruct (t_state t) as [n|w rv|w|w|w rv|ws|] eqn:E; cbn; try exact I.
    + destruct (H2 t w Hin E) as (wk & ->). discriminate.
    + split; [intros ->; exact (H1 t Hin E) | exact (H3 t ws Hin E)].
Qed.

Definition Dm (c c' : core) : Prop := forall w, find_worker (c_workers c) w <> None -> find_worker (c_workers c') w <> None.
Definition Tm (c c' : core) (L : list tid) : Prop :=
  forall t', In t' (c_tasks c') ->
    (exists t, In t (c_tasks c) /\ t_id t = t_id t' /\ t_state t = t_state t') \/ okst c' (t_state t') \/
    (In (t_id t') L /\ exists ws, t_state t' = RunningMN ws /\ NoDup ws).
Definition Rm (c c' : core) (L : list tid) : Prop := Tm c c' L /\ Dm c c'.
Notation R c c' := (Rm c c' []).

Lemma okst_Dm c c' s : Dm c c' -> okst c s -> okst c' s.
Proof. intros D. destruct s; cbn; auto. Qed.

Lemma Rm_refl c L : Rm c c L.
Proof. split; [|intros w H; exact H]. intros t Hin. left. exists t. auto. Qed.

Lemma Rm_trans c1 c2 c3 L L' : Rm c1 c2 L -> Rm c2 c3 L' -> Rm c1 c3 (L ++ L').
Proof.
  intros [T1 D1] [T2 D2]. split; [|intros w H; apply D2, D1, H].
  intros t3 H3. destruct (T2 t3 H3) as [(t2 & H2 & Ei & Es)|[Ho|Hl]].
  - destruct (T1 t2 H2) as [(t1 & H1 & Ei1 & Es1)|[Ho|Hl]].
    + left. exists t1. split; [exact H1|]. split; congruence.
    + right. left. rewrite <- Es. eapply okst_Dm; eassumption.
    + right. right. destruct Hl as [Hl Hws]. split; [apply in_app_iff; left; rewrite <- Ei; exact Hl | rewrite <- Es; exact Hws].
  - right. left. exact Ho.
  - right. right. destruct Hl as [Hl Hws]. split; [apply in_app_iff; right; exact Hl | exact Hws].
Qed.

Lemma R_trans c1 c2 c3 : R c1 c2 -> R c2 c3 -> R c1 c3.
Proof. intros A B. exact (Rm_trans _ _ _ [] [] A B). Qed.

Lemma Rm_weaken c c' L L' : incl L L' -> Rm c c' L -> Rm c c' L'.
Proof.
  intros I [T D]. split; [|exact D]. intros t H. destruct (T t H) as [X|[X|[X Y]]]; auto.
Qed.

Lemma J_Rm c c' L : J c -> Rm c c' L -> forall t, In t (c_tasks c') ->
  okst c' (t_state t) \/ (In (t_id t) L /\ exists ws, t_state t = RunningMN ws /\ NoDup ws).
Proof.
  intros HJ [T D] t Hin. destruct (T t Hin) as [(t0 & H0 & _ & Es)|[X|X]]; auto.
  left. rewrite <- Es. eapply okst_Dm; [exact D | apply HJ; exact H0].
Qed.

Lemma J_R c c' : J c -> R c c' -> J c'.
Proof. intros HJ HR t Hin. destruct (J_Rm _ _ _ HJ HR t Hin) as [X|[[] _]]. exact X. Qed.

Lemma find_set_worker_keep ws k w : find_worker ws w <> None -> find_worker (set_worker ws k) w <> None.
Proof. rewrite find_set_worker. destruct (N.eqb w (w_id k)); [discriminate | auto]. Qed.

Lemma Dm_eq c c' : c_workers c' = c_workers c -> Dm c c'.
Proof. intros E w. rewrite E. auto. Qed.
Lemma Dm_set1 c c' k : c_workers c' = set_worker (c_workers c) k -> Dm c c'.
Proof. intros E w H. rewrite E. apply find_set_worker_keep. exact H. Qed.
Lemma Dm_set2 c c' k1 k2 : c_workers c' = set_worker (set_worker (c_workers c) k1) k2 -> Dm c c'.
Proof. intros E w H. rewrite E. apply find_set_worker_keep, find_set_worker_keep. exact H. Qed.
Ltac dm := first [apply Dm_eq; reflexivity | eapply Dm_set1; reflexivity | eapply Dm_set2; reflexivity].

Lemma R_tasks c c' : c_tasks c' = c_tasks c -> Dm c c' -> R c c'.
Proof. intros E D. split; [|exact D]. intros t H. left. exists t. rewrite <- E. auto. Qed.

Lemma R_agree c c' : cores_agree c c' -> R c c'.
Proof. intros (A & B & _). apply R_tasks; [exact A | apply Dm_eq; exact B]. Qed.

Lemma R_set_ok c c' x : c_tasks c' = set_task (c_tasks c) x -> Dm c c' -> okst c (t_state x) -> R c c'.
Proof.
  intros E D Ho. split; [|exact D]. intros t H. rewrite E in H. destruct (set_task_in _ _ _ H) as [->|Hin].
  - right. left. eapply okst_Dm; eassumption.
  - left. exists t. auto.
Qed.

Lemma R_set_same c c' x t : c_tasks c' = set_task (c_tasks c) x -> Dm c c' -> In t (c_tasks c) ->
  t_id x = t_id t -> t_state x = t_state t -> R c c'.
Proof.
  intros E D Hin Ei Es. split; [|exact D]. intros t' H. rewrite E in H. destruct (set_task_in _ _ _ H) as [->|Hin'].
  - left. exists t. auto.
  - left. exists t'. auto.
Qed.

Lemma find_in ts id t : find_task ts id = Some t -> In t ts.
Proof. intros H. apply (find_task_some _ _ _ H). Qed.

Lemma get_worker_ne ws w wk : get_worker ws w = Ok wk -> find_worker ws w <> None.
Proof. unfold get_worker. destruct (find_worker ws w); [discriminate | intros H; inversion H]. Qed.

Lemma retract_states_R ids : forall c acc c' acc', retract_states c ids acc = Ok (c', acc') -> R c c'.
Proof.
  induction ids as [|id r IH]; cbn [retract_states]; intros c acc c' acc' H; [inversion H; subst; apply Rm_refl|].
  apply bind_ok in H. destruct H as (t & Ht & H).
  destruct (t_state t) eqn:Est; try discriminate.
  apply bind_ok in H. destruct H as (wk & Hw & H). apply bind_ok in H. destruct H as (wk' & _ & H).
  eapply R_trans; [|eapply IH; exact H].
  eapply (R_set_ok _ _ (with_state t (Retracting w))); [reflexivity | dm | cbn; eapply get_worker_ne; exact Hw].
Qed.

Lemma process_retracted_R s r s' : process_retracted s r = Ok s' -> R (core_of s) (core_of s').
Proof.
  unfold process_retracted. intros H. destruct r; [inversion H; subst; apply Rm_refl|].
  apply bind_ok in H. destruct H as ([c' groups] & H1 & H). rewrite (send_all_core _ _ _ H).
  eapply retract_states_R; exact H1.
Qed.

Lemma try_remove_redirection_R c t c' : try_remove_redirection c t = Ok c' -> R c c'.
Proof.
  unfold try_remove_redirection. destruct (find_redirect _ _) as [[w rv]|]; intros H; inv_binds H; inversion H; subst;
    (apply R_tasks; [reflexivity | dm]).
Qed.

Lemma reset_mn_workers_R ws : forall c id c', reset_mn_workers c ws id = Ok c' -> R c c'.
Proof.
  induction ws as [|w r IH]; cbn [reset_mn_workers]; intros c id c' H; [inversion H; subst; apply Rm_refl|].
  apply bind_ok in H. destruct H as (wk & _ & H). destruct (w_assign wk); [discriminate|].
  destruct (tid_eqb t id); [|discriminate]. eapply R_trans; [|eapply IH; exact H]. apply R_tasks; [reflexivity | dm].
Qed.

Lemma reset_mn_all_R ws : forall c c', reset_mn_all c ws = Ok c' -> R c c'.
Proof.
  induction ws as [|w r IH]; cbn [reset_mn_all]; intros c c' H; [inversion H; subst; apply Rm_refl|].
  apply bind_ok in H. destruct H as (wk & _ & H). eapply R_trans; [|eapply IH; exact H]. apply R_tasks; [reflexivity | dm].
Qed.

Lemma released_R c id rq t c1 : released c id rq t c1 -> R c c1.
Proof.
  intros [Hs | w wk wk' Hs Hw Hrm | w q q' wk wk' Hs Hq Hq' Hw Hrm | w c2 Hs H1 | ws c2 Hs H1 | ws c2 Hs H1].
  - apply Rm_refl.
  - apply R_tasks; [reflexivity | dm].
  - apply R_tasks; [reflexivity | dm].
  - eapply try_remove_redirection_R; exact H1.
  - eapply reset_mn_all_R; exact H1.
  - eapply reset_mn_workers_R; exact H1.
Qed.

Lemma cancel_release_R ids : forall s tu ru s' tu' ru', cancel_release s ids tu ru = Ok (s', tu', ru') -> R (core_of s) (core_of s').
Proof.
  induction ids as [|id r IH]; intros s tu ru s' tu' ru' H; [cbn [cancel_release] in H; inversion H; subst; apply Rm_refl|].
  destruct (cancel_release_step _ _ _ _ _ _ H) as [[_ H1] | (t & rq & c1 & s1 & tu1 & ru1 & _ & _ & _ & Hrel & E & H1)]; [eapply IH; exact H1|].
  eapply R_trans; [exact (released_R _ _ _ _ _ Hrel)|]. eapply R_trans; [|eapply IH; exact H1].
  destruct E as [-> | ->]; [apply Rm_refl | apply R_tasks; [reflexivity | dm]].
Qed.

Lemma remove_task_R c id c' stt : remove_task c id = Ok (c', stt) -> R c c'.
Proof.
  intros H. unfold remove_task in H. destruct (find_task (c_tasks c) id) as [t|]; [|discriminate].
  assert (R0 : forall c1, c_tasks c1 = del_task (c_tasks c) id -> c_workers c1 = c_workers c -> R c c1).
  { intros c1 E Ew. split; [|apply Dm_eq; exact Ew]. intros t' Hin. rewrite E in Hin. left. exists t'. split; [eapply del_task_in; exact Hin | auto]. }
  destruct (t_state t); try (inversion H; subst; apply R0; reflexivity).
  apply bind_ok in H. destruct H as (c2 & H2 & H).
  assert (E2 : c_tasks c2 = del_task (c_tasks c) id /\ c_workers c2 = c_workers c).
  { destruct (N.eqb unfinished_deps 0); [inv_binds H2|]; inversion H2; subst; auto. }
  destruct E2 as [T2 W2].
  destruct (N.ltb 0 unfinished_deps); [|inversion H; subst; apply R0; assumption].
  apply bind_ok in H. destruct H as (ts & Hr & H). inversion H; subst.
  eapply R_trans; [apply (R0 c2); assumption|].
  split; [|apply Dm_eq; reflexivity]. intros t' Hin. left. destruct (remove_consumer_from_in _ _ _ _ Hr t' Hin) as (t0 & A & B & C & _). exists t0. auto.
Qed.

Lemma remove_tasks_batched_R ids : forall c c', remove_tasks_batched c ids = Ok c' -> R c c'.
Proof.
  induction ids as [|id r IH]; cbn [remove_tasks_batched]; intros c c' H; [inversion H; subst; apply Rm_refl|].
  apply bind_ok in H. destruct H as ([c1 stt] & H1 & H). eapply R_trans; [eapply remove_task_R; exact H1 | eapply IH; exact H].
Qed.

Lemma remove_waiting_consumers_R l : forall c c', remove_waiting_consumers c l = Ok c' -> R c c'.
Proof.
  induction l as [|id r IH]; cbn [remove_waiting_consumers]; intros c c' H; [inversion H; subst; apply Rm_refl|].
  apply bind_ok in H. destruct H as ([c1 stt] & H1 & H). destruct stt; try discriminate.
  eapply R_trans; [eapply remove_task_R; exact H1 | eapply IH; exact H].
Qed.

Lemma on_cancel_tasks_R s ids s' : on_cancel_tasks s ids = Ok s' -> R (core_of s) (core_of s').
Proof.
  intros H. unfold on_cancel_tasks in H.
  apply bind_ok in H. destruct H as ([[s1 tu] ru] & H1 & H). apply bind_ok in H. destruct H as (c' & H2 & H).
  rewrite (send_all_core _ _ _ H).
  eapply R_trans; [eapply cancel_release_R; exact H1 | eapply remove_tasks_batched_R; exact H2].
Qed.

Lemma task_failed_R s w id k s' : task_failed s w id k = Ok s' -> R (core_of s) (core_of s').
Proof.
  intros H. destruct (find_task (c_tasks (core_of s)) id) as [t|] eqn:Ef.
  2:{ unfold task_failed in H. rewrite Ef in H. inversion H; subst. apply Rm_refl. }
  destruct (task_failed_released _ _ _ _ _ _ H Ef) as (rq & c1 & _ & Hrel & csm & c2 & c3 & stt & s1 & ids & _ & H2 & H3 & _ & H4 & H5).
  assert (R1 : R (core_of s) c1) by (destruct Hrel as [Hrel | (-> & _)]; [exact (released_R _ _ _ _ _ Hrel) | apply Rm_refl]).
  pose proof (process_task_failed_core _ _ _ _ _ _ H4) as C4. cbn in C4.
  assert (R3 : R (core_of s) (core_of s1)).
  { rewrite C4. eapply R_trans; [exact R1|]. eapply R_trans; [eapply remove_waiting_consumers_R; exact H2 | eapply remove_task_R; exact H3]. }
  destruct ids; [subst s'; exact R3|].
  eapply R_trans; [exact R3 | eapply on_cancel_tasks_R; exact H5].
Qed.

Lemma wake_consumers_R csm : forall c ret c' ret', wake_consumers c csm ret = Ok (c', ret') -> R c c'.
Proof.
  induction csm as [|x r IH]; cbn [wake_consumers]; intros c ret c' ret' H; [inversion H; subst; apply Rm_refl|].
  apply bind_ok in H. destruct H as (t & Ht & H).
  destruct (t_state t) as [n| | | | | |]; try discriminate. destruct (N.eqb n 0); [discriminate|].
  assert (R1 : forall qs, R c (with_queues (upd_task c (with_state t (Waiting (n - 1)))) qs)).
  { intros qs. eapply (R_set_ok _ _ (with_state t (Waiting (n - 1)))); [reflexivity | dm | exact I]. }
  destruct (N.eqb (n - 1) 0).
  - apply bind_ok in H. destruct H as ([qs rt] & _ & H). eapply R_trans; [apply (R1 qs) | eapply IH; exact H].
  - eapply R_trans; [apply (R1 (c_queues c)) | eapply IH; exact H].
Qed.

Lemma task_finished_R s w id s' b : task_finished s w id = Ok (s', b) -> R (core_of s) (core_of s').
Proof.
  intros H. destruct (find_task (c_tasks (core_of s)) id) as [t|] eqn:Ef.
  2:{ unfold task_finished in H. rewrite Ef in H. inversion H; subst. apply Rm_refl. }
  destruct (task_finished_released _ _ _ _ _ _ H Ef) as (rq & c1 & s1 & c3 & retracted & s2 & c4 & _ & Hrel & Hf & Hw & Hr & Hrm & -> & _).
  destruct (process_task_finished_active _ _ _ Hf) as [C1 _]. unfold core_same in C1. cbn in C1.
  change (R (core_of s) c4).
  eapply R_trans; [exact (released_R _ _ _ _ _ Hrel)|].
  eapply R_trans; [eapply (R_set_ok c1 (upd_task c1 (with_state t Finished)) (with_state t Finished)); [reflexivity | dm | exact I]|].
  rewrite <- C1. eapply R_trans; [eapply wake_consumers_R; exact Hw|].
  eapply R_trans; [exact (process_retracted_R (st_core s1 c3) _ _ Hr) | eapply remove_task_R; exact Hrm].
Qed.

Lemma task_running_R s w id rv s' b : task_running s w id rv = Ok (s', b) -> R (core_of s) (core_of s').
Proof.
  intros H. unfold task_running in H.
  destruct (find_task (c_tasks (core_of s)) id) as [t|]; [|inversion H; subst; apply Rm_refl].
  apply bind_ok in H. destruct H as (rq & _ & H). apply bind_ok in H. destruct H as ([s1 ws] & H1 & H).
  apply bind_ok in H. destruct H as (s2 & H2 & H). inversion H; subst s' b.
  destruct (process_task_started_active _ _ _ _ _ _ H2) as [C2 _]. unfold core_same in C2. rewrite C2. clear H2 C2 H.
  destruct (t_state t) as [n|w1 rv1|w1|w1|w1 rv1|wsx|]; try discriminate.
  - destruct (negb (N.eqb w1 w)); [discriminate|]. destruct (negb (N.eqb rv1 rv)); [discriminate|]. inversion H1; subst s1 ws.
    eapply (R_set_ok _ _ (with_state t (Running w rv))); [reflexivity | dm | exact I].
  - destruct (negb (N.eqb w1 w)); [discriminate|]. inv_binds H1. inversion H1; subst s1 ws.
    eapply (R_set_ok _ _ (with_state t (Running w rv))); [reflexivity | dm | exact I].
  - destruct (negb (N.eqb w1 w)); [discriminate|].
    apply bind_ok in H1. destruct H1 as (c1 & Hc1 & H1). inv_binds H1. inversion H1; subst s1 ws.
    eapply R_trans; [|eapply R_trans; [eapply try_remove_redirection_R; exact Hc1|]].
    + apply R_tasks; [reflexivity | dm].
    + eapply (R_set_ok _ _ (with_state t (Running w rv))); [reflexivity | dm | exact I].
  - destruct wsx; [discriminate|]. destruct (N.eqb w0 w); [|discriminate]. inversion H1; subst s1 ws. apply Rm_refl.
Qed.

Lemma requeue_R s t c1 s' b :
  (do (qs, ret) <- add_ready_task (c_queues c1) (with_state t (Waiting 0));
   do s'' <- process_retracted (st_core s (with_queues (upd_task c1 (with_state t (Waiting 0))) qs)) ret;
   Ok (s'', true)) = Ok (s', b) -> R c1 (core_of s').
Proof.
  intros H. apply bind_ok in H. destruct H as ([qs ret] & _ & H). apply bind_ok in H. destruct H as (s2 & Hr & H). inversion H; subst.
  eapply R_trans; [|exact (process_retracted_R _ _ _ Hr)].
  eapply (R_set_ok _ _ (with_state t (Waiting 0))); [reflexivity | dm | exact I].
Qed.

Lemma task_reject_R s w id rv s' b : task_reject s w id rv = Ok (s', b) -> R (core_of s) (core_of s').
Proof.
  intros H. unfold task_reject in H. set (c := core_of s) in *.
  destruct (find_task (c_tasks c) id) as [t|]; [|inversion H; subst; apply Rm_refl].
  apply bind_ok in H. destruct H as (wk & _ & H). cbv zeta in H.
  match type of H with context [upd_worker c ?k] => set (wk1 := k) in * end.
  assert (R0 : R c (upd_worker c wk1)) by (apply R_tasks; [reflexivity | dm]).
  apply bind_ok in H. destruct H as (rq & _ & H).
  destruct (t_state t) as [n|w1 rv1|w1|w1|w1 rv1|wsx|];
    try (apply bind_ok in H; destruct H as (r0 & Hr0 & _); discriminate).
  - apply bind_ok in H. destruct H as ([c1 cont] & Hr & H).
    assert (R1 : R (upd_worker c wk1) c1).
    { destruct (negb (N.eqb w w1)); [inversion Hr; subst; apply Rm_refl|].
      destruct rv as [v|]; [|inversion Hr; subst; apply Rm_refl].
      destruct (N.eqb v rv1); [|inversion Hr; subst; apply Rm_refl].
      inv_binds Hr. inversion Hr; subst. apply R_tasks; [reflexivity | dm]. }
    eapply R_trans; [exact R0|]. eapply R_trans; [exact R1|]. eapply requeue_R; exact H.
  - apply bind_ok in H. destruct H as ([c1 cont] & Hr & H).
    assert (R1 : R (upd_worker c wk1) c1) by (inv_binds Hr; inversion Hr; subst; apply R_tasks; [reflexivity | dm]).
    eapply R_trans; [exact R0|]. eapply R_trans; [exact R1|]. eapply requeue_R; exact H.
  - apply bind_ok in H. destruct H as ([c1 cont] & Hr & H).
    assert (E1 : c1 = upd_worker c wk1) by (destruct (negb (N.eqb w w1)); inversion Hr; reflexivity). subst c1.
    eapply R_trans; [exact R0|].
    destruct cont.
    + destruct (find_redirect (c_redirects (upd_worker c wk1)) id) as [[target rvt]|].
      * apply bind_ok in H. destruct H as (s1 & Hs1 & H). inversion H; subst s' b.
        rewrite (send_worker_core _ _ _ _ Hs1).
        eapply (R_set_ok _ _ (with_state t (Assigned target rvt))); [reflexivity | dm | exact I].
      * eapply requeue_R; exact H.
    + inversion H; subst. apply Rm_refl.
Qed.

Lemma request_enabled_R s w rq rv s' : request_enabled s w rq rv = Ok s' -> R (core_of s) (core_of s').
Proof.
  intros H. unfold request_enabled in H. apply bind_ok in H. destruct H as (wk & _ & H). inversion H; subst s'.
  apply R_tasks; [reflexivity | dm].
Qed.

Lemma apply_updates_R us : forall s w need s' need', apply_updates s w us need = Ok (s', need') -> R (core_of s) (core_of s').
Proof. exact (apply_updates_walk (fun a b : st => R (core_of a) (core_of b)) (fun a => Rm_refl _ _) (fun a b c => R_trans _ _ _) task_finished_R task_failed_R task_running_R task_reject_R request_enabled_R us). Qed.

Lemma on_task_update_R s w us s' : on_task_update s w us = Ok s' -> R (core_of s) (core_of s').
Proof.
  apply (on_task_update_walk (fun a b : st => R (core_of a) (core_of b)) (fun a => Rm_refl _ _) (fun a b c => R_trans _ _ _) task_finished_R task_failed_R task_running_R task_reject_R request_enabled_R).
  intros x. apply R_tasks; [reflexivity | dm].
Qed.

Lemma retract_response_states_R ids : forall c w acc c' acc', retract_response_states c w ids acc = (c', acc') -> R c c'.
Proof.
  induction ids as [|id r IH]; cbn [retract_response_states]; intros c w acc c' acc' H; [inversion H; subst; apply Rm_refl|].
  destruct (find_task (c_tasks c) id) as [t|]; [|eapply IH; exact H].
  destruct (t_state t); try (eapply IH; exact H).
  destruct (N.eqb w w0); [|eapply IH; exact H].
  destruct (find_redirect (c_redirects c) id) as [[target rv]|].
  - eapply R_trans; [|eapply IH; exact H]. eapply (R_set_ok _ _ (with_state t (Assigned target rv))); [reflexivity | dm | exact I].
  - eapply R_trans; [|eapply IH; exact H]. eapply (R_set_ok _ _ (with_state t (Waiting 0))); [reflexivity | dm | exact I].
Qed.

Lemma on_retract_response_R s w ids s' : on_retract_response s w ids = Ok s' -> R (core_of s) (core_of s').
Proof.
  unfold on_retract_response. intros H. destruct (retract_response_states _ w ids []) as [c' groups] eqn:E.
  apply bind_ok in H. destruct H as (s2 & H & H2).
  assert (X2 : R (core_of s) (core_of s2)).
  { rewrite (send_redirected_core _ _ _ H). eapply retract_response_states_R; exact E. }
  destruct (retract_wakes _ _ _ _); inversion H2; subst s'; clear H2; [|exact X2].
  eapply R_trans; [exact X2|]. apply R_tasks; [reflexivity | dm].
Qed.

Lemma on_new_worker_R s rs g s' : on_new_worker s rs g = Ok s' -> R (core_of s) (core_of s').
Proof. intros H. unfold on_new_worker in H. inversion H; subst s'. apply R_tasks; [reflexivity | dm]. Qed.

Lemma register_deps_R deps : forall c id kept count c' kept' count', register_deps c id deps kept count = (c', kept', count') -> R c c'.
Proof.
  induction deps as [|d r IH]; cbn [register_deps]; intros c id kept count c' kept' count' H; [inversion H; subst; apply Rm_refl|].
  destruct (find_task (c_tasks c) d) as [dep|] eqn:Ef; [|eapply IH; exact H].
  eapply R_trans; [|eapply IH; exact H].
  eapply (R_set_same _ _ (with_consumers dep (tid_insert id (t_consumers dep))) dep); [reflexivity | dm | eapply find_in; exact Ef | reflexivity | reflexivity].
Qed.

Lemma add_new_tasks_R ts : forall c ret c' ret', add_new_tasks c ts ret = Ok (c', ret') -> R c c'.
Proof.
  induction ts as [|t r IH]; cbn [add_new_tasks]; intros c ret c' ret' H; [inversion H; subst; apply Rm_refl|].
  destruct (register_deps c (t_id t) (t_deps t) [] 0) as [[c1 kept] count] eqn:Er.
  pose proof (register_deps_R _ _ _ _ _ _ _ _ Er) as R1.
  apply bind_ok in H. destruct H as ([c2 rt] & H2 & H).
  assert (R2 : R c1 c2).
  { destruct (N.eqb count 0); [|inversion H2; subst; apply Rm_refl].
    apply bind_ok in H2. destruct H2 as ([qs rt'] & _ & H2). inversion H2; subst. apply R_tasks; [reflexivity | dm]. }
  destruct (find_task (c_tasks c2) (t_id t)); [discriminate|].
  eapply R_trans; [exact R1|]. eapply R_trans; [exact R2|]. eapply R_trans; [|eapply IH; exact H].
  eapply (R_set_ok _ _ (with_state (with_deps t kept) (Waiting count))); [reflexivity | dm | exact I].
Qed.

Lemma on_new_tasks_R s ts s' : on_new_tasks s ts = Ok s' -> R (core_of s) (core_of s').
Proof.
  intros H. unfold on_new_tasks in H. destruct ts as [|t0 tr] eqn:Et; [inversion H; subst; apply Rm_refl|]. rewrite <- Et in *. clear Et.
  apply bind_ok in H. destruct H as ([c' retracted] & Ha & H). apply bind_ok in H. destruct H as (s1 & Hr & H). inversion H; subst s'.
  eapply R_trans; [eapply add_new_tasks_R; exact Ha|].
  eapply R_trans; [exact (process_retracted_R (st_core s c') _ _ Hr)|]. apply R_tasks; [reflexivity | dm].
Qed.

Lemma lost_prefilled_R l : forall c c', lost_prefilled c l = Ok c' -> R c c'.
Proof.
  induction l as [|id r IH]; cbn [lost_prefilled]; intros c c' H; [inversion H; subst; apply Rm_refl|].
  apply bind_ok in H. destruct H as (t & _ & H). apply bind_ok in H. destruct H as (q & _ & H). apply bind_ok in H. destruct H as (q' & _ & H).
  eapply R_trans; [|eapply IH; exact H].
  eapply (R_set_ok _ _ (with_state (with_inst t (t_inst t + 1)) (Waiting 0))); [reflexivity | dm | exact I].
Qed.

Lemma lost_assigned_R l : forall c running ret c' running' ret', lost_assigned c l running ret = Ok (c', running', ret') -> R c c'.
Proof.
  induction l as [|id r IH]; cbn [lost_assigned]; intros c running ret c' running' ret' H; [inversion H; subst; apply Rm_refl|].
  apply bind_ok in H. destruct H as (t & Ht & H). apply get_task_find in Ht.
  apply bind_ok in H. destruct H as ([[c1 t1] running1] & Hr1 & H).
  apply bind_ok in H. destruct H as ([qs rt] & _ & H).
  eapply R_trans; [|eapply IH; exact H].
  assert (E1 : c_tasks c1 = c_tasks c /\ c_workers c1 = c_workers c /\ (t1 = t \/ t1 = with_state t (Waiting 0))).
  { destruct (t_state t); try (inversion Hr1; subst; auto; fail).
    destruct (find_redirect _ id); inversion Hr1; subst; auto. }
  destruct E1 as (Et & Ew & [-> | ->]).
  - eapply (R_set_same _ _ (with_inst t (t_inst t + 1)) t); [cbn [c_tasks upd_task with_tasks with_queues]; rewrite Et; reflexivity
      | apply Dm_eq; cbn [c_workers upd_task with_tasks with_queues]; exact Ew | eapply find_in; exact Ht | reflexivity | reflexivity].
  - eapply (R_set_ok _ _ (with_inst (with_state t (Waiting 0)) (t_inst (with_state t (Waiting 0)) + 1)));
      [cbn [c_tasks upd_task with_tasks with_queues]; rewrite Et; reflexivity | apply Dm_eq; cbn [c_workers upd_task with_tasks with_queues]; exact Ew | exact I].
Qed.

Lemma lost_fail_running_R l : forall s reason s', lost_fail_running s reason l = Ok s' -> R (core_of s) (core_of s').
Proof.
  apply (lost_fail_running_rel (fun a b : st => R (core_of a) (core_of b)) (fun a => Rm_refl _ _) (fun a b c => R_trans _ _ _)).
  - intros s id t Ef. eapply (R_set_same _ _ (with_crash t (t_crash t + 1)) t); [reflexivity | dm | eapply find_in; exact Ef | reflexivity | reflexivity].
  - intros s id k s' _ H. exact (task_failed_R _ _ _ _ _ H).
Qed.

Lemma map_one_R c m id w v rqres c' m' : map_one c m id w v rqres = Ok (c', m') -> R c c'.
Proof.
  intros H. unfold map_one in H.
  apply bind_ok in H. destruct H as (wk & _ & H). apply bind_ok in H. destruct H as (wk' & _ & H).
  apply bind_ok in H. destruct H as (t & _ & H).
  destruct (t_state t) as [n|w1 rv1|old|old|w1 rv1|wsx|]; try discriminate.
  - inversion H; subst. eapply (R_set_ok _ _ (with_state t (Assigned w v))); [reflexivity | dm | exact I].
  - destruct (find_worker (c_workers (upd_worker c wk')) old) as [wo|] eqn:Hwo; [|discriminate].
    apply bind_ok in H. destruct H as (wo' & _ & H).
    destruct (find_redirect _ id); [discriminate|]. inversion H; subst.
    eapply R_trans; [apply (R_tasks c (upd_worker c wk')); [reflexivity | dm]|].
    eapply (R_set_ok _ _ (with_state t (Retracting old))); [reflexivity | dm | change (find_worker (c_workers (upd_worker c wk')) old <> None); rewrite Hwo; discriminate].
  - destruct (find_redirect _ id) as [[ot vo]|].
    + inv_binds H. inversion H; subst. apply R_tasks; [reflexivity | dm].
    + inversion H; subst. apply R_tasks; [reflexivity | dm].
Qed.

Lemma map_sn_R sol l : forall c m c' m', map_sn c m sol l = Ok (c', m') -> R c c'.
Proof.
  intros c m c' m' H.
  exact (map_sn_lift (fun c c' => R c c') (fun c => Rm_refl c []) R_trans (fun c qs => R_tasks c (with_queues c qs) eq_refl (Dm_eq _ _ eq_refl))
           map_one_R sol l c m c' m' H).
Qed.

(** A multi-node placement names distinct workers: the second placement of a worker panics. *)
Lemma set_mn_workers_busy l : forall c id first w wk, find_worker (c_workers c) w = Some wk -> worker_is_free wk = false -> In w l ->
  forall c', set_mn_workers c id l first <> Ok c'.
Proof.
  induction l as [|x r IH]; intros c id first w wk Hw Hnf Hin c' H; [destruct Hin|]. cbn [set_mn_workers] in H.
  apply bind_ok in H. destruct H as (wkx & Hx & H). apply bind_ok in H. destruct H as (wkx' & Hset & H).
  unfold get_worker in Hx. destruct (find_worker (c_workers c) x) as [k|] eqn:Ek; [|discriminate]. inversion Hx; subst k.
  unfold set_mn_task in Hset. destruct (worker_is_free wkx) eqn:Ef; [|discriminate]. inversion Hset; subst wkx'.
  destruct (find_worker_some _ _ _ Ek) as [_ Hxi].
  destruct (N.eqb w x) eqn:E.
  - apply N.eqb_eq in E. subst x. congruence.
  - destruct Hin as [->|Hin]; [rewrite N.eqb_refl in E; discriminate|].
    eapply (IH _ id false w wk); [| exact Hnf | exact Hin | exact H].
    cbn [c_workers upd_worker with_workers]. rewrite find_set_worker. cbn [w_id with_assign]. rewrite Hxi, E. exact Hw.
Qed.

Lemma set_mn_workers_nodup l : forall c id first c', set_mn_workers c id l first = Ok c' -> NoDup l.
Proof.
  induction l as [|x r IH]; intros c id first c' H; [constructor|]. pose proof H as H0. cbn [set_mn_workers] in H.
  apply bind_ok in H. destruct H as (wkx & Hx & H). apply bind_ok in H. destruct H as (wkx' & Hset & H).
  constructor; [|eapply IH; exact H]. intros Hin.
  unfold get_worker in Hx. destruct (find_worker (c_workers c) x) as [k|] eqn:Ek; [|discriminate]. inversion Hx; subst k.
  unfold set_mn_task in Hset. destruct (worker_is_free wkx); [|discriminate]. inversion Hset; subst wkx'.
  destruct (find_worker_some _ _ _ Ek) as [_ Hxi].
  eapply (set_mn_workers_busy r _ id false x (with_assign wkx (Mn id first))); [| reflexivity | exact Hin | exact H].
  cbn [c_workers upd_worker with_workers]. rewrite find_set_worker. cbn [w_id with_assign]. rewrite Hxi, N.eqb_refl. reflexivity.
Qed.

Lemma set_mn_workers_R l : forall c id first c', set_mn_workers c id l first = Ok c' -> R c c'.
Proof.
  induction l as [|w r IH]; cbn [set_mn_workers]; intros c id first c' H; [inversion H; subst; apply Rm_refl|].
  apply bind_ok in H. destruct H as (wk & _ & H). apply bind_ok in H. destruct H as (wk' & _ & H).
  eapply R_trans; [|eapply IH; exact H]. apply R_tasks; [reflexivity | dm].
Qed.

Lemma map_mn_sets_Rm sets : forall c rq mn c' mn', map_mn_sets c rq mn sets = Ok (c', mn') -> Rm c c' mn' /\ incl mn mn'.
Proof.
  induction sets as [|ws r IH]; cbn [map_mn_sets]; intros c rq mn c' mn' H; [inversion H; subst; split; [apply Rm_refl | apply incl_refl]|].
  apply bind_ok in H. destruct H as (q & _ & H). destruct (q_take_one q) as [[id q']|]; [|discriminate].
  apply bind_ok in H. destruct H as (c2 & H2 & H). apply bind_ok in H. destruct H as (t & Ht & H). apply get_task_find in Ht.
  destruct (find_task_some _ _ _ Ht) as [_ Hid].
  destruct (t_state t) as [n| | | | | |]; try discriminate. destruct n; [|discriminate].
  destruct (IH _ _ _ _ _ H) as [R3 I3]. split; [|intros x Hx; apply I3; apply in_app_iff; left; exact Hx].
  pose proof (set_mn_workers_nodup _ _ _ _ _ H2) as Hnd.
  assert (Hidm : In id mn') by (apply I3; apply in_app_iff; right; left; reflexivity).
  eapply (Rm_weaken _ _ ([] ++ [] ++ [id] ++ mn')); [intros x Hx; cbn in Hx; destruct Hx as [<-|Hx]; assumption|].
  eapply Rm_trans; [apply (R_tasks c (with_queues c (set_queue (c_queues c) (N.to_nat rq) q'))); [reflexivity | dm]|].
  eapply Rm_trans; [eapply set_mn_workers_R; exact H2|].
  eapply Rm_trans; [|exact R3].
  split; [|dm]. intros t' Hin. cbn [c_tasks upd_task with_tasks] in Hin. destruct (set_task_in _ _ _ Hin) as [->|Hin'].
  - right. right. cbn [t_id t_state with_state]. split; [left; symmetry; exact Hid | eauto].
  - left. exists t'. auto.
Qed.

Lemma map_mn_Rm l : forall c mn c' mn', map_mn c mn l = Ok (c', mn') -> Rm c c' mn' /\ incl mn mn'.
Proof.
  induction l as [|[[rq v] sets] r IH]; cbn [map_mn]; intros c mn c' mn' H; [inversion H; subst; split; [apply Rm_refl | apply incl_refl]|].
  apply bind_ok in H. destruct H as ([c1 mn1] & H1 & H).
  destruct (map_mn_sets_Rm _ _ _ _ _ _ H1) as [R1 I1]. destruct (IH _ _ _ _ H) as [R2 I2].
  split; [|eapply incl_tran; eassumption].
  eapply (Rm_weaken _ _ (mn1 ++ mn')); [intros x Hx; apply in_app_iff in Hx; destruct Hx as [Hx|Hx]; [apply I2; exact Hx | exact Hx]|].
  eapply Rm_trans; eassumption.
Qed.

Lemma prefill_mark_R l : forall c w c', prefill_mark c w l = Ok c' -> R c c'.
Proof.
  induction l as [|id r IH]; cbn [prefill_mark]; intros c w c' H; [inversion H; subst; apply Rm_refl|].
  apply bind_ok in H. destruct H as (t & _ & H). destruct (negb (is_waiting t)); [discriminate|].
  apply bind_ok in H. destruct H as (wk & _ & H). apply bind_ok in H. destruct H as (wk' & _ & H).
  eapply R_trans; [|eapply IH; exact H].
  eapply (R_set_ok _ _ (with_state t (Prefilled w))); [reflexivity | dm | exact I].
Qed.

Lemma prefill_queues_R n : forall c m worder qi top c' m', prefill_queues c m worder qi n top = Ok (c', m') -> R c c'.
Proof.
  intros c m worder qi top c' m' H.
  exact (prefill_queues_lift (fun c c' => R c c') (fun c => Rm_refl c []) R_trans (fun c qs => R_tasks c (with_queues c qs) eq_refl (Dm_eq _ _ eq_refl))
           prefill_mark_R n c m worder qi top c' m' H).
Qed.

Lemma send_mn_states l : forall s s', send_mn s l = Ok s' ->
  forall id, In id l -> exists t w0 ws, find_task (c_tasks (core_of s)) id = Some t /\ t_state t = RunningMN (w0 :: ws).
Proof.
  induction l as [|x r IH]; cbn [send_mn]; intros s s' H id Hin; [destruct Hin|].
  apply bind_ok in H. destruct H as (t & Ht & H). apply get_task_find in Ht.
  destruct (t_state t) eqn:Est; try discriminate. destruct ws as [|w0 ws]; [discriminate|].
  apply bind_ok in H. destruct H as (s1 & H1 & H).
  destruct Hin as [<-|Hin]; [eauto|].
  destruct (IH _ _ H id Hin) as (t1 & w1 & ws1 & Hf & Hs). rewrite (send_worker_core _ _ _ _ H1) in Hf. eauto.
Qed.

Lemma run_scheduling_J s sol s' : CS (core_of s) -> J (core_of s) -> run_scheduling s sol = Ok s' -> J (core_of s').
Proof.
  unfold run_scheduling. intros Hs HJ H. destruct (negb (perm_of_set _ _)); [discriminate|].
  apply bind_ok in H. destruct H as ([c1 m1] & H1 & H).
  apply bind_ok in H. destruct H as ([c2 mn] & H2 & H).
  apply bind_ok in H. destruct H as ([c3 m3] & H3 & H).
  apply bind_ok in H. destruct H as (s1 & H4 & H).
  apply bind_ok in H. destruct H as (s2 & H5 & H). inversion H; subst s'.
  pose proof (map_sn_frame _ _ _ _ _ _ Hs H1) as E1.
  assert (Hs1 : CS c1) by (eapply CS_keys; [exact E1 | exact Hs]).
  pose proof (map_mn_frame _ _ _ _ _ Hs1 H2) as E2.
  assert (Hs2 : CS c2) by (eapply CS_keys; [exact E2 | exact Hs1]).
  assert (A3 : keys c3 = keys c2 /\ R c2 c3).
  { destruct (queues_top_priority (c_queues c2)); [|inversion H3; subst; split; [reflexivity | apply Rm_refl]].
    split; [eapply prefill_queues_frame; [exact Hs2 | exact H3] | eapply prefill_queues_R; exact H3]. }
  destruct A3 as [E3 R3].
  assert (Hs3 : CS c3) by (eapply CS_keys; [exact E3 | exact Hs2]).
  destruct (map_mn_Rm _ _ _ _ _ H2) as [R2 _].
  pose proof (Rm_trans _ _ _ _ _ (Rm_trans _ _ _ _ _ (map_sn_R _ _ _ _ _ _ H1) R2) R3) as Rall.
  assert (Ec : core_of s1 = c3) by (rewrite (send_mapping_core _ _ _ H4); reflexivity).
  assert (J3 : J c3).
  { intros t Hin. destruct (J_Rm _ _ _ HJ Rall t Hin) as [X|[Hl _]]; [exact X|].
    rewrite app_nil_r in Hl. cbn [app] in Hl.
    destruct (send_mn_states _ _ _ H5 _ Hl) as (tk & w0 & ws & Hf & Hst). rewrite Ec in Hf.
    rewrite (in_find_task _ _ (CS_sorted _ Hs3) Hin) in Hf. inversion Hf; subst tk.
    destruct (J_Rm _ _ _ HJ Rall t Hin) as [X|[_ (ws' & Hst' & Hnd)]]; [exact X|].
    rewrite Hst. rewrite Hst in Hst'. inversion Hst'; subst ws'. split; [discriminate | exact Hnd]. }
  eapply J_R; [exact J3|]. apply R_tasks; [cbn; rewrite (send_mn_core _ _ _ H5), Ec; reflexivity | apply Dm_eq; cbn; rewrite (send_mn_core _ _ _ H5), Ec; reflexivity].
Qed.
