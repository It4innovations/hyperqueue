(** Finding F28 / invariant RSN, part 2: worker loss and the client requests (all satisfy
    [RS] / keep [JS]); the scheduling round, [Sys.step], every history.

    The multi-node placement of a scheduling round is the one function that does not satisfy [RS]:
    it moves workers to multi-node mode.  Within one round the single-node mapping runs first and
    may turn [Prefilled w] into [Retracting w], emptying the prefill set of [w] - so that [w] looks
    free when the multi-node mapping runs.  The contract on the scheduler's answer therefore has two
    clauses, both evaluated on the state the round starts in:
    - [sched_retract_ok] (RetractFree.v, the repair of F28): no task is being retracted from a worker
      named by the multi-node part;
    - [sol_ok] (NoPanicS7.v), of which only the clause "a worker named by the multi-node part is
      free" is used: such a worker holds no prefilled task, so the round itself starts no
      retraction from it.
    Results: [reachable_RSN], [reachable_MNR]. *)
From HQ Require Import Base.Prelude Cluster.Types Cluster.Core Cluster.Reactor Cluster.Worker Cluster.Server Cluster.Sys Cluster.Monitors Cluster.RejHyp Cluster.ProofsJob Cluster.ProofsMore Cluster.ProofsTerminal Cluster.ProofsStep Cluster.ProofsFinal Cluster.BijBase Cluster.BijCore Cluster.BijHq Cluster.BijSt Cluster.BijReact Cluster.BijFinal Cluster.InvWBase Cluster.InvWView Cluster.InvWCore Cluster.InvDStep Cluster.InvBundle Cluster.InvProcsDef Cluster.NoPanicC1 Cluster.NoPanicC2 Cluster.InvWX1 Cluster.InvWX3 Cluster.NoPanicS4 Cluster.NoPanicS7 Cluster.RetractFree Cluster.NoPanicU0 Cluster.NoPanicU20 Cluster.NoPanicU23.
From HQ Require Import Cluster.ReactSplit.
From HQ Require Import Cluster.StepShape.
From HQ Require Import Cluster.ModelFacts.
From Coq Require Import ZArith Lia Sorting.Sorted.
Local Open Scope N_scope.

Arguments N.add : simpl never.
Arguments N.sub : simpl never.

Definition JSx (w : wid) (c : core) : Prop := forall t, In t (c_tasks c) -> okS c (t_state t) \/ t_state t = Retracting w.


Lemma JSx_del c w : JS c -> JSx w (with_workers c (del_worker (c_workers c) w)).
Proof.
  intros HJ t Hin. specialize (HJ t Hin). cbn [c_tasks with_workers] in Hin.
  destruct (t_state t) as [n|w1 rv|w1|w1|w1 rv|ws|]; cbn in *; auto.
  destruct (N.eqb w1 w) eqn:E; [apply N.eqb_eq in E; subst; auto|]. left. destruct HJ as (wk0 & Hw0 & Hs0). exists wk0. split; [|exact Hs0]. cbn [c_workers with_workers]. rewrite find_del_worker_other by exact E. exact Hw0.
Qed.

Lemma JSx_RS w c c' : JSx w c -> RS c c' -> JSx w c'.
Proof.
  intros HJ [T D] t Hin. destruct (T t Hin) as [(t0 & H0 & _ & Es)|X]; [|left; exact X].
  rewrite <- Es. destruct (HJ t0 H0) as [X|X]; [left; eapply okS_DS; eassumption | right; exact X].
Qed.


Lemma lost_retracting_JS w l : forall s s',
  CS (core_of s) -> JSx w (core_of s) ->
  (forall t, In t (c_tasks (core_of s)) -> t_state t = Retracting w -> In (t_id t) l) ->
  lost_retracting s w l = Ok s' -> JS (core_of s').
Proof.
  induction l as [|id r IH]; cbn [lost_retracting]; intros s s' Hs HJ Hall H.
  - inversion H; subst. intros t Hin. destruct (HJ t Hin) as [X|X]; [exact X|]. destruct (Hall t Hin X).
  - apply bind_ok in H. destruct H as (t & Ht & H). apply get_task_find in Ht.
    destruct (find_task_some _ _ _ Ht) as [Htin Hid].
    assert (Hskip : t_state t <> Retracting w -> lost_retracting s w r = Ok s' -> JS (core_of s')).
    { intros Hne Hl. eapply IH; [exact Hs | exact HJ | | exact Hl].
      intros t' Hin' Est'. destruct (Hall t' Hin' Est') as [E|E]; [|exact E]. exfalso.
      pose proof (in_find_task _ _ (CS_sorted _ Hs) Hin') as Hf. rewrite <- E, Ht in Hf. inversion Hf; subst. contradiction. }
    destruct (t_state t) as [n|w1 rv1|w1|w1|w1 rv1|wsx|] eqn:Est; try (apply Hskip; [discriminate | exact H]).
    destruct (N.eqb w w1) eqn:Ew; [|apply Hskip; [intros X; inversion X; subst; rewrite N.eqb_refl in Ew; discriminate | exact H]].
    cbv zeta in H.
    assert (Hgen : forall c' x s1, core_of s1 = c' -> c_tasks c' = set_task (c_tasks (core_of s)) x -> c_workers c' = c_workers (core_of s) ->
              keys c' = keys (core_of s) -> t_id x = id -> okS (core_of s) (t_state x) -> (forall w2, t_state x <> Retracting w2) ->
              lost_retracting s1 w r = Ok s' -> JS (core_of s')).
    { intros c' x s1 Ec Et Ewk Ek Ex Ho Hnr Hl. eapply IH; [| | | exact Hl]; rewrite Ec.
      - eapply CS_keys; [exact Ek | exact Hs].
      - eapply JSx_RS; [exact HJ|]. eapply (RS_set_ok _ _ x); [exact Et | apply DS_eq; exact Ewk | exact Ho].
      - intros t' Hin' Est'. rewrite Et in Hin'. destruct (set_task_in _ _ _ Hin') as [->|Hin2]; [exfalso; exact (Hnr _ Est')|].
        destruct (Hall t' Hin2 Est') as [E|E]; [|exact E]. exfalso.
        assert (t' = x) by (eapply set_task_in_same; [apply CS_sorted; exact Hs | exact Hin' | rewrite Ex; symmetry; exact E]).
        subst t'. exact (Hnr _ Est'). }
    destruct (find_redirect (c_redirects (core_of s)) id) as [[target rv]|] eqn:Er.
    + apply bind_ok in H. destruct H as (s1 & Hs1 & H).
      eapply (Hgen _ (with_state (with_inst t (t_inst t + 1)) (Assigned target rv)) s1); [exact (send_worker_core _ _ _ _ Hs1) | reflexivity | reflexivity | | exact Hid | exact I | discriminate | exact H].
      apply (upd_task_frame (with_redirects (core_of s) (del_redirect (c_redirects (core_of s)) id)) id t); [exact Hs | exact Ht | reflexivity | reflexivity].
    + eapply (Hgen _ (with_state (with_inst t (t_inst t + 1)) (Waiting 0)) (st_core s (upd_task (core_of s) (with_state (with_inst t (t_inst t + 1)) (Waiting 0))))); [reflexivity | reflexivity | reflexivity | | exact Hid | exact I | discriminate | exact H].
      apply (upd_task_frame (core_of s) id t); [exact Hs | exact Ht | reflexivity | reflexivity].
Qed.

Lemma on_remove_worker_JS s w reason a p t s' :
  CB s -> JS (core_of s) -> on_remove_worker s w reason a p t = Ok s' -> JS (core_of s').
Proof.
  intros HC HJ H. unfold on_remove_worker in H.
  destruct (find_worker (c_workers (core_of s)) w) as [wk|] eqn:Hw; [|discriminate].
  apply bind_ok in H. destruct H as ([[c2 running] retracted] & Hr & H).
  set (c := core_of s) in *.
  set (c0 := with_workers c (del_worker (c_workers c) w)) in *.
  assert (Hs0 : CS c0) by exact (cb_s _ HC).
  assert (A2 : RS c0 c2 /\ keys c2 = K s).
  { destruct (w_assign wk) as [sa sp sf|mt root] eqn:Ea.
    - destruct (negb _); [discriminate|]. apply bind_ok in Hr. destruct Hr as (c1 & Hp & Hr). split.
      + eapply RS_trans; [eapply lost_prefilled_RS; exact Hp | eapply lost_assigned_RS; exact Hr].
      + pose proof (lost_prefilled_frame _ _ _ Hs0 Hp) as E1.
        rewrite (lost_assigned_frame _ _ _ _ _ _ _ (CS_keys _ _ E1 Hs0) Hr). exact E1.
    - apply bind_ok in Hr. destruct Hr as (tk & Ht & Hr). apply get_task_find in Ht.
      destruct (find_task_some _ _ _ Ht) as [Htin Hid].
      destruct (t_state tk) as [n|w1 rv1|w1|w1|w1 rv1|ws|] eqn:Est; try discriminate. destruct ws as [|w0 rest] eqn:Ews; [discriminate|].
      destruct (N.eqb w w0) eqn:Ew0.
      + apply bind_ok in Hr. destruct Hr as (c1 & Hc1 & Hr). apply bind_ok in Hr. destruct Hr as ([qs ret] & ?X & Hr).
        inversion Hr; subst c2 running retracted. split.
        * eapply RS_trans; [eapply reset_mn_all_RS; exact Hc1|].
          eapply (RS_set_ok _ _ (with_inst (with_state tk (Waiting 0)) (t_inst tk + 1))); [reflexivity | ds | exact I].
        * pose proof (reset_mn_all_frame _ _ _ Hc1) as E1.
          pose proof (reset_mn_all_tasks _ _ _ Hc1) as T1.
          change (keys (upd_task c1 (with_inst (with_state tk (Waiting 0)) (t_inst tk + 1))) = K s).
          transitivity (keys c1); [|exact E1].
          apply (upd_task_frame c1 mt tk); [eapply CS_keys; [exact E1 | exact Hs0] | rewrite T1; exact Ht | reflexivity | reflexivity].
      + inversion Hr; subst c2 running retracted. split.
        * eapply (RS_set_ok _ _ (with_state tk (RunningMN (filter (fun x => negb (N.eqb x w)) (w0 :: rest))))); [reflexivity | ds | exact I].
        * apply (upd_task_frame c0 mt tk); [exact Hs0 | exact Ht | reflexivity | reflexivity]. }
  destruct A2 as [R2 E2].
  destruct (negb (perm_of_set t _)) eqn:Ep; [discriminate|]. apply negb_false_iff in Ep.
  apply bind_ok in H. destruct H as (s3 & H3 & H). apply bind_ok in H. destruct H as (s4 & H4 & H).
  apply bind_ok in H. destruct H as (s6 & H6 & H). apply bind_ok in H. destruct H as (s7 & H7 & H). inversion H; subst s'.
  assert (Hs2 : CS c2) by (eapply CS_keys; [exact E2 | exact (cb_s _ HC)]).
  assert (J3 : JS (core_of s3)).
  { eapply (lost_retracting_JS w t); [| | | exact H3].
    - exact Hs2.
    - eapply JSx_RS; [apply JSx_del; exact HJ | exact R2].
    - intros t' Hin' _. unfold perm_of_set in Ep. apply andb_true_iff in Ep. destruct Ep as [_ Ep]. rewrite forallb_forall in Ep.
      apply tid_mem_In. apply Ep. apply in_map. exact Hin'. }
  destruct (process_worker_lost_active _ _ _ _ _ H6) as [C6 _]. unfold core_same in C6.
  eapply JS_RS; [exact J3|].
  eapply RS_trans; [eapply process_retracted_RS; exact H4|].
  eapply RS_trans; [|eapply RS_trans; [eapply lost_fail_running_RS; exact H7 | apply RS_tasks; [reflexivity | ds]]].
  rewrite C6. apply RS_refl.
Qed.

Lemma handle_cancel_RS s jid s' : handle_cancel s jid = Ok s' -> RS (core_of s) (core_of s').
Proof.
  intros H. unfold handle_cancel in H.
  destruct (find_job (hq_jobs s) jid) as [j|]; [|inversion H; subst; apply RS_refl].
  destruct (non_finished_task_ids j) as [|i0 ir] eqn:En; [inversion H; subst; apply RS_refl|]. rewrite <- En in *. clear En.
  apply bind_ok in H. destruct H as (s1 & H1 & H). apply bind_ok in H. destruct H as (al & ?X & H).
  apply bind_ok in H. destruct H as (s2 & H2 & H). inversion H; subst s'.
  destruct (set_cancel_state_active _ _ _ _ H2) as [C2 _]. unfold core_same in C2.
  change (RS (core_of s) (core_of s2)). rewrite C2. eapply on_cancel_tasks_RS; exact H1.
Qed.

Lemma get_or_create_rq_RS s r : RS (core_of s) (core_of (fst (get_or_create_rq s r))).
Proof. unfold get_or_create_rq. destruct (rq_index _ r 0); [apply RS_refl|]. apply RS_tasks; [reflexivity | ds]. Qed.

Lemma RS_same_core (a b : st) : core_of b = core_of a -> s_procs (fst b) = s_procs (fst a) -> RS (core_of a) (core_of b).
Proof. intros E _. rewrite E. apply RS_refl. Qed.

Lemma handle_submit_array_RS s jobsel ids entries rq prio cl tlim mf s' :
  handle_submit_array s jobsel ids entries rq prio cl tlim mf = Ok s' -> RS (core_of s) (core_of s').
Proof.
  exact (handle_submit_array_pass (fun a b : st => RS (core_of a) (core_of b)) (fun a b c => RS_trans _ _ _) RS_same_core
           get_or_create_rq_RS on_new_tasks_RS s jobsel ids entries rq prio cl tlim mf s').
Qed.

Lemma handle_submit_graph_RS s jobsel rqs ts mf s' :
  handle_submit_graph s jobsel rqs ts mf = Ok s' -> RS (core_of s) (core_of s').
Proof.
  exact (handle_submit_graph_pass (fun a b : st => RS (core_of a) (core_of b)) (fun a b c => RS_trans _ _ _) RS_same_core
           get_or_create_rq_RS on_new_tasks_RS s jobsel rqs ts mf s').
Qed.

(** * The single-node mapping: where a [Retracting] / [Prefilled] state comes from *)
Definition OS (c c' : core) : Prop :=
  forall t', In t' (c_tasks c') ->
    (forall w, t_state t' = Retracting w ->
       exists t, In t (c_tasks c) /\ t_id t = t_id t' /\ (t_state t = Retracting w \/ t_state t = Prefilled w)) /\
    (forall w, t_state t' = Prefilled w -> exists t, In t (c_tasks c) /\ t_id t = t_id t' /\ t_state t = Prefilled w).

Lemma OS_refl c : OS c c.
Proof. intros t Hin. split; intros w E; exists t; auto. Qed.

Lemma OS_trans c1 c2 c3 : OS c1 c2 -> OS c2 c3 -> OS c1 c3.
Proof.
  intros A B t3 H3. destruct (B t3 H3) as [B1 B2]. split; intros w E.
  - destruct (B1 w E) as (t2 & H2 & Ei & [Es|Es]).
    + destruct (proj1 (A t2 H2) w Es) as (t1 & H1 & Ei1 & Es1). exists t1. split; [exact H1|]. split; [congruence | exact Es1].
    + destruct (proj2 (A t2 H2) w Es) as (t1 & H1 & Ei1 & Es1). exists t1. split; [exact H1|]. split; [congruence | right; exact Es1].
  - destruct (B2 w E) as (t2 & H2 & Ei & Es). destruct (proj2 (A t2 H2) w Es) as (t1 & H1 & Ei1 & Es1).
    exists t1. split; [exact H1|]. split; [congruence | exact Es1].
Qed.

Lemma OS_tasks c c' : c_tasks c' = c_tasks c -> OS c c'.
Proof. intros E t Hin. rewrite E in Hin. split; intros w Es; exists t; auto. Qed.

Lemma OS_set c c' x t : c_tasks c' = set_task (c_tasks c) x -> In t (c_tasks c) -> t_id x = t_id t ->
  (forall w, t_state x = Retracting w -> t_state t = Retracting w \/ t_state t = Prefilled w) ->
  (forall w, t_state x = Prefilled w -> t_state t = Prefilled w) -> OS c c'.
Proof.
  intros E Hin Ei H1 H2 t' Hin'. rewrite E in Hin'. destruct (set_task_in _ _ _ Hin') as [->|Hin2].
  - split; intros w Es; exists t; (split; [exact Hin|]); (split; [symmetry; exact Ei|]); auto.
  - split; intros w Es; exists t'; auto.
Qed.

Lemma map_one_OS c m id w v rqres c' m' : map_one c m id w v rqres = Ok (c', m') -> OS c c'.
Proof.
  intros H. unfold map_one in H.
  apply bind_ok in H. destruct H as (wk & ?X & H). apply bind_ok in H. destruct H as (wk' & ?X & H).
  apply bind_ok in H. destruct H as (t & Ht & H). apply get_task_find in Ht. pose proof (find_in _ _ _ Ht) as Hin.
  cbn [c_tasks upd_worker with_workers] in Hin.
  destruct (t_state t) as [n|w1 rv1|old|old|w1 rv1|wsx|] eqn:Est; try discriminate.
  - inversion H; subst. eapply (OS_set _ _ (with_state t (Assigned w v)) t); [reflexivity | exact Hin | reflexivity | cbn; discriminate | cbn; discriminate].
  - destruct (find_worker (c_workers (upd_worker c wk')) old) as [wo|]; [|discriminate].
    apply bind_ok in H. destruct H as (wo' & ?X & H).
    destruct (find_redirect _ id); [discriminate|]. inversion H; subst.
    eapply (OS_set _ _ (with_state t (Retracting old)) t); [reflexivity | exact Hin | reflexivity | | cbn; discriminate].
    intros w0 E. cbn in E. inversion E; subst. right. exact Est.
  - destruct (find_redirect _ id) as [[ot vo]|].
    + inv_binds H. inversion H; subst. apply OS_tasks. reflexivity.
    + inversion H; subst. apply OS_tasks. reflexivity.
Qed.

Lemma map_sn_OS sol l : forall c m c' m', map_sn c m sol l = Ok (c', m') -> OS c c'.
Proof. apply (map_sn_lift OS OS_refl OS_trans); [|exact map_one_OS]. intros c qs. apply OS_tasks. reflexivity. Qed.

(** * The multi-node mapping: no new retraction, only the named workers change *)
Definition MS (c c' : core) (W : list wid) : Prop :=
  (forall t' w, In t' (c_tasks c') -> t_state t' = Retracting w ->
     exists t, In t (c_tasks c) /\ t_id t = t_id t' /\ t_state t = Retracting w) /\
  (forall w, ~ In w W -> find_worker (c_workers c') w = find_worker (c_workers c) w).

Lemma MS_refl c : MS c c [].
Proof. split; [intros t w Hin E; exists t; auto | reflexivity]. Qed.

Lemma MS_trans c1 c2 c3 W1 W2 : MS c1 c2 W1 -> MS c2 c3 W2 -> MS c1 c3 (W1 ++ W2).
Proof.
  intros [T1 D1] [T2 D2]. split.
  - intros t3 w H3 E. destruct (T2 t3 w H3 E) as (t2 & H2 & Ei & Es). destruct (T1 t2 w H2 Es) as (t1 & H1 & Ei1 & Es1).
    exists t1. split; [exact H1|]. split; [congruence | exact Es1].
  - intros w Hn. rewrite D2, D1; [reflexivity | |]; intros X; apply Hn; apply in_app_iff; auto.
Qed.

Lemma set_mn_workers_fr l : forall c id first c', set_mn_workers c id l first = Ok c' ->
  c_tasks c' = c_tasks c /\ forall w, ~ In w l -> find_worker (c_workers c') w = find_worker (c_workers c) w.
Proof.
  induction l as [|x r IH]; cbn [set_mn_workers]; intros c id first c' H; [inversion H; subst; auto|].
  apply bind_ok in H. destruct H as (wk & Hx & H). apply bind_ok in H. destruct H as (wk' & Hset & H).
  apply get_worker_find in Hx. destruct (find_worker_some _ _ _ Hx) as [_ Hxi].
  unfold set_mn_task in Hset. destruct (worker_is_free wk); [|discriminate]. inversion Hset; subst wk'.
  destruct (IH _ _ _ _ H) as [Et Ew]. split; [rewrite Et; reflexivity|].
  intros w Hn. rewrite Ew by (intros X; apply Hn; right; exact X).
  cbn [c_workers upd_worker with_workers]. rewrite find_set_worker. cbn [w_id with_assign]. rewrite Hxi.
  destruct (N.eqb w x) eqn:E; [|reflexivity]. apply N.eqb_eq in E. exfalso. apply Hn. left. congruence.
Qed.

Lemma map_mn_sets_MS sets : forall c rq mn c' mn', map_mn_sets c rq mn sets = Ok (c', mn') -> MS c c' (concat sets).
Proof.
  induction sets as [|ws r IH]; cbn [map_mn_sets concat]; intros c rq mn c' mn' H; [inversion H; subst; apply MS_refl|].
  apply bind_ok in H. destruct H as (q & ?X & H). destruct (q_take_one q) as [[id q']|]; [|discriminate].
  apply bind_ok in H. destruct H as (c2 & H2 & H). apply bind_ok in H. destruct H as (t & Ht & H).
  destruct (t_state t) as [n| | | | | |]; try discriminate. destruct n; [|discriminate].
  eapply MS_trans; [|eapply IH; exact H].
  destruct (set_mn_workers_fr _ _ _ _ _ H2) as [Et Ew]. cbn [c_tasks c_workers with_queues] in Et, Ew. split.
  - intros t' w Hin E. cbn [c_tasks upd_task with_tasks] in Hin. destruct (set_task_in _ _ _ Hin) as [->|Hin'].
    + cbn in E. discriminate.
    + exists t'. rewrite <- Et. auto.
  - intros w Hn. cbn [c_workers upd_task with_tasks]. apply Ew. exact Hn.
Qed.

Lemma map_mn_MS l : forall c mn c' mn', map_mn c mn l = Ok (c', mn') -> MS c c' (mn_workers l).
Proof.
  induction l as [|[[rq v] sets] r IH]; cbn [map_mn]; intros c mn c' mn' H; [inversion H; subst; apply MS_refl|].
  apply bind_ok in H. destruct H as ([c1 mn1] & H1 & H).
  unfold mn_workers. cbn [map snd concat]. rewrite concat_app.
  eapply MS_trans; [eapply map_mn_sets_MS; exact H1 | eapply IH; exact H].
Qed.

Lemma tid_mem_nil id : tid_mem id [] = false.
Proof. reflexivity. Qed.

Lemma run_scheduling_JS s sol s' :
  CS (core_of s) -> WI (core_of s) -> JS (core_of s) ->
  sol_ok (core_of s) sol = true -> sched_retract_ok (core_of s) sol = true ->
  run_scheduling s sol = Ok s' -> JS (core_of s').
Proof.
  unfold run_scheduling. intros Hs HW HJ Hsol Hret H. destruct (negb (perm_of_set _ _)); [discriminate|].
  set (c := core_of s) in *.
  apply bind_ok in H. destruct H as ([c1 m1] & H1 & H).
  apply bind_ok in H. destruct H as ([c2 mn] & H2 & H).
  apply bind_ok in H. destruct H as ([c3 m3] & H3 & H).
  apply bind_ok in H. destruct H as (s1 & H4 & H).
  apply bind_ok in H. destruct H as (s2 & H5 & H). inversion H; subst s'.
  pose proof (map_sn_RS _ _ _ _ _ _ H1) as [_ D1]. pose proof (map_sn_OS _ _ _ _ _ _ H1) as O1.
  destruct (map_mn_MS _ _ _ _ _ H2) as [T2 D2].
  assert (R3 : RS c2 c3).
  { destruct (queues_top_priority (c_queues c2)); [|inversion H3; subst; apply RS_refl]. eapply prefill_queues_RS; exact H3. }
  assert (Ec : core_of s2 = c3) by (rewrite (send_mn_core _ _ _ H5), (send_mapping_core _ _ _ H4); reflexivity).
  assert (J3 : JS c3).
  { destruct R3 as [T3 D3]. intros t3 Hin3. destruct (T3 t3 Hin3) as [(t2 & Hin2 & Ei2 & Es2)|X]; [|exact X].
    destruct (t_state t3) as [n|w1 rv|w|w|w1 rv|ws|] eqn:Est; cbn; try exact I.
    destruct (T2 t2 w Hin2 Es2) as (t1 & Hin1 & Ei1 & Es1).
    destruct (proj1 (O1 t1 Hin1) w Es1) as (t & Hin & Ei & Es).
    assert (A : snw c w /\ ~ In w (mn_workers (sol_mn sol))).
    { destruct Es as [Es|Es].
      - split; [pose proof (HJ t Hin) as X; rewrite Es in X; exact X|].
        intros Hw. unfold sched_retract_ok in Hret. rewrite forallb_forall in Hret. specialize (Hret w Hw).
        apply negb_true_iff in Hret.
        assert (X : retracting_from c w = true).
        { unfold retracting_from. apply existsb_exists. exists t. split; [exact Hin|]. rewrite Es. apply N.eqb_refl. }
        congruence.
      - pose proof (in_find_task _ _ (CS_sorted _ Hs) Hin) as Hf.
        destruct (WIX_P _ _ _ t w HW eq_refl Hf) as (wk & a & p & f & Hwk & Ea & Hm); [rewrite Es; reflexivity|].
        split; [exists wk; split; [exact Hwk | exists a, p, f; exact Ea]|].
        intros Hw. unfold sol_ok in Hsol. apply andb_true_iff in Hsol. destruct Hsol as [_ Hsol].
        rewrite forallb_forall in Hsol. specialize (Hsol w Hw). unfold mn_w_ok in Hsol. apply andb_true_iff in Hsol. destruct Hsol as [Hfree _].
        fold c in Hfree. rewrite Hwk in Hfree. unfold worker_is_free in Hfree. rewrite Ea in Hfree.
        destruct a; [|discriminate]. destruct p; [|discriminate]. rewrite tid_mem_nil in Hm. discriminate. }
    destruct A as [Hsn Hnw]. apply D3. destruct (D1 w Hsn) as (wk1 & Hw1 & Hk1). exists wk1. split; [|exact Hk1].
    rewrite (D2 w Hnw). exact Hw1. }
  eapply JS_RS; [exact J3|]. apply RS_tasks; [cbn; rewrite Ec; reflexivity | apply DS_eq; cbn; rewrite Ec; reflexivity].
Qed.

Definition sched_ok (s : sys) (o : op) : Prop :=
  match o with OpSched sol => sol_ok (s_core s) sol = true /\ sched_retract_ok (s_core s) sol = true | _ => True end.

Theorem step_JS s o s' outs : CB (s, []) -> WI (s_core s) -> JS (s_core s) -> sched_ok s o -> step s o = Ok (s', outs) -> JS (s_core s').
Proof.
  intros HC HW HJ Hso H. change (JS (core_of (s', outs))).
  assert (HR : RS (s_core s) (core_of (s', outs)) -> JS (core_of (s', outs))) by (intros X; eapply JS_RS; [exact HJ | exact X]).
  destruct o; cbn [step] in H.
  - apply HR. exact (on_new_worker_RS (s, []) _ _ _ H).
  - destruct (find_proc _ w); [|discriminate]. exact (on_remove_worker_JS (s, []) _ _ _ _ _ _ HC HJ H).
  - destruct (bad_submit_lengths _ _); [inversion H; subst; apply HR; apply RS_refl|]. apply HR. exact (handle_submit_array_RS (s, []) _ _ _ _ _ _ _ _ _ H).
  - destruct (bad_graph_rq _ _); [inversion H; subst; apply HR; apply RS_refl|]. destruct (dead_dep _ _ _); [inversion H; subst; apply HR; apply RS_refl|]. apply HR. exact (handle_submit_graph_RS (s, []) _ _ _ _ _ H).
  - apply HR. unfold handle_open in H. inversion H; subst. apply RS_refl.
  - apply HR. unfold handle_close in H. cbn in H. destruct (find_job _ j) as [jb|]; [|inversion H; subst; apply RS_refl].
    destruct (j_open jb); [|inversion H; subst; apply RS_refl].
    apply bind_ok in H. destruct H as (s1 & H1 & H). inversion H; subst.
    destruct (check_termination_jt _ _ _ H1) as [C1 _]. unfold core_same in C1. change (RS (s_core s) (core_of s1)). rewrite C1. apply RS_refl.
  - apply HR. exact (handle_cancel_RS (s, []) _ _ H).
  - apply HR. unfold handle_forget in H. cbn in H. destruct (find_job _ j) as [jb|]; [|inversion H; subst; apply RS_refl].
    apply bind_ok in H. destruct H as (na & _ & H). destruct (negb (j_open jb) && na); inversion H; subst; apply RS_refl.
  - apply HR. destruct (find_proc _ w) as [p|]; [|discriminate]. destruct (p_down p); [discriminate|].
    inv_binds H. inversion H; subst. apply RS_refl.
  - apply HR. destruct (find_proc _ w) as [p|]; [|discriminate]. destruct (p_up p) as [|m rest]; [discriminate|].
    destruct m.
    + match type of H with on_task_update ?s1 _ _ = _ => exact (on_task_update_RS s1 _ _ _ H) end.
    + match type of H with on_retract_response ?s1 _ _ = _ => exact (on_retract_response_RS s1 _ _ _ H) end.
  - destruct (c_flag (s_core s)); [|discriminate]. destruct Hso as [Hsol Hret].
    exact (run_scheduling_JS (s, []) _ _ (cb_s _ HC) HW HJ Hsol Hret H).
  - apply HR. destruct (find_proc _ w) as [p|]; [|discriminate]. inv_binds H. inversion H; subst. apply RS_refl.
  - apply HR. destruct (find_proc _ w) as [p|]; [|discriminate]. inversion H; subst. apply RS_refl.
  - apply HR. inversion H; subst. apply RS_refl.
  - apply HR. inv_binds H. inversion H; subst. apply RS_refl.
Qed.

(** [sol_ok] along a run, in the shape of [ops_ok] / [ops_retract_ok]. *)
Definition op_sol_ok (s : sys) (o : op) : bool :=
  match o with OpSched sol => sol_ok (s_core s) sol | _ => true end.
Fixpoint ops_sol_ok (s : sys) (ops : list op) : bool :=
  match ops with
  | [] => true
  | o :: r => op_sol_ok s o && match step s o with Ok (s1, _) => ops_sol_ok s1 r | _ => true end
  end.

Lemma ops_sol_ok_snoc pre : forall s o, ops_sol_ok s (pre ++ [o]) = true ->
  ops_sol_ok s pre = true /\ forall s1 o1, run s pre = Ok (s1, o1) -> op_sol_ok s1 o = true.
Proof.
  induction pre as [|p r IH]; cbn [app ops_sol_ok run]; intros s o H.
  - apply andb_true_iff in H. destruct H as [H _]. split; [reflexivity|]. intros s1 o1 E. inversion E; subst. exact H.
  - apply andb_true_iff in H. destruct H as [H0 H]. rewrite H0. cbn [andb]. destruct (step s p) as [[s2 o2]| |] eqn:Es.
    + destruct (IH _ _ H) as [A B]. split; [exact A|]. intros s1 o1 E. cbn [bind] in E. apply bind_ok in E. destruct E as ([s3 o3] & E3 & E). inversion E; subst. eapply B. exact E3.
    + split; [reflexivity|]. intros s1 o1 E. discriminate.
    + split; [reflexivity|]. intros s1 o1 E. discriminate.
Qed.

Lemma ops_retract_ok_snoc pre : forall s o, ops_retract_ok s (pre ++ [o]) = true ->
  ops_retract_ok s pre = true /\ forall s1 o1, run s pre = Ok (s1, o1) -> op_retract_ok s1 o = true.
Proof.
  induction pre as [|p r IH]; cbn [app ops_retract_ok run]; intros s o H.
  - apply andb_true_iff in H. destruct H as [H _]. split; [reflexivity|]. intros s1 o1 E. inversion E; subst. exact H.
  - apply andb_true_iff in H. destruct H as [H0 H]. rewrite H0. cbn [andb]. destruct (step s p) as [[s2 o2]| |] eqn:Es.
    + destruct (IH _ _ H) as [A B]. split; [exact A|]. intros s1 o1 E. cbn [bind] in E. apply bind_ok in E. destruct E as ([s3 o3] & E3 & E). inversion E; subst. eapply B. exact E3.
    + split; [reflexivity|]. intros s1 o1 E. discriminate.
    + split; [reflexivity|]. intros s1 o1 E. discriminate.
Qed.

(** RSN: in every reachable state the worker a task is being retracted from is connected and in
    single-node mode. *)
Theorem reachable_RSN ops : forall reserve maxfill s outs,
  Forall op_wf ops -> ops_ok (init_sys reserve maxfill) ops = true ->
  ops_sol_ok (init_sys reserve maxfill) ops = true -> ops_retract_ok (init_sys reserve maxfill) ops = true ->
  run (init_sys reserve maxfill) ops = Ok (s, outs) -> RSN (s_core s).
Proof.
  induction ops as [|o pre IH] using rev_ind; intros reserve maxfill s outs Hwf Hok Hsol Hret H.
  - cbn in H. inversion H; subst. intros t w [].
  - apply Forall_app in Hwf. destruct Hwf as [Hwf1 Hwf2]. destruct (ops_ok_snoc _ _ _ Hok) as [Hok1 Hok2].
    destruct (ops_sol_ok_snoc _ _ _ Hsol) as [Hsol1 Hsol2]. destruct (ops_retract_ok_snoc _ _ _ Hret) as [Hret1 Hret2].
    destruct (run_app _ _ _ _ _ H) as (s1 & o1 & o2 & H1 & H2 & ->). cbn [run] in H2. apply bind_ok in H2. destruct H2 as ([s2 o3] & Hs & H2). cbn in H2. inversion H2; subst s2 o2. clear H2.
    pose proof (IH reserve maxfill s1 o1 Hwf1 Hok1 Hsol1 Hret1 H1) as HR1.
    pose proof (reachable_INV_ops _ _ _ _ _ Hwf1 Hok1 H1) as HI1.
    apply JS_RSN. eapply step_JS; [exact (inv_cb _ HI1) | exact (inv_w _ HI1) | apply JS_RSN; exact HR1 | | exact Hs].
    specialize (Hsol2 _ _ H1). specialize (Hret2 _ _ H1). destruct o; cbn; try exact I. split; [exact Hsol2 | exact Hret2].
Qed.

(** MNR (RetractFree.v): no task is being retracted from a worker that holds a multi-node task. *)
Lemma RSN_MNR c : wsorted (c_workers c) -> RSN c -> MNR c.
Proof.
  intros Hs HR wk t root Hin Ea. destruct (retracting_from c (w_id wk)) eqn:E; [|reflexivity]. exfalso.
  unfold retracting_from in E. apply existsb_exists in E. destruct E as (t0 & Hin0 & E).
  destruct (t_state t0) as [n|w1 rv|w1|w1|w1 rv|ws|] eqn:Est; try discriminate. apply N.eqb_eq in E. subst w1.
  destruct (HR t0 _ Hin0 Est) as (wk' & Hw & (a & p & f & Ea')).
  rewrite (in_find_worker _ _ Hs Hin) in Hw. inversion Hw; subst wk'. congruence.
Qed.

Theorem reachable_MNR ops reserve maxfill s outs :
  Forall op_wf ops -> ops_ok (init_sys reserve maxfill) ops = true ->
  ops_sol_ok (init_sys reserve maxfill) ops = true -> ops_retract_ok (init_sys reserve maxfill) ops = true ->
  run (init_sys reserve maxfill) ops = Ok (s, outs) -> MNR (s_core s).
Proof.
  intros Hwf Hok Hsol Hret H. apply RSN_MNR.
  - pose proof (reachable_INV_ops _ _ _ _ _ Hwf Hok H) as HI. destruct (inv_w _ HI) as (X & _). exact X.
  - eapply reachable_RSN; eassumption.
Qed.

Print Assumptions reachable_MNR.
