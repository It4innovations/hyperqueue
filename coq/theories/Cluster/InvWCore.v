(** Worker-set invariant, part 3: the invariant on cores ([WIX X c]: [X] = set of task ids that are
    temporarily hidden, i.e. already taken out of the worker sets but not yet out of the task map)
    and the primitive transitions of the reactor expressed on cores. *)
From HQ Require Import Base.Prelude Cluster.Types Cluster.Core Cluster.Reactor Cluster.Worker Cluster.Server Cluster.Sys Cluster.ProofsJob Cluster.ProofsMore Cluster.ProofsStep Cluster.BijBase Cluster.BijCore Cluster.InvWBase Cluster.InvWView.
From HQ Require Import Cluster.ModelFacts.
From Coq Require Import ZArith Lia Sorting.Sorted.
Local Open Scope N_scope.

Arguments N.add : simpl never.
Arguments N.sub : simpl never.

Definition TV (ts : list task) : tview := fun id => option_map t_state (find_task ts id).

Definition xset := tid -> bool.
Definition x0 : xset := fun _ => false.
Definition xadd (X : xset) (id : tid) : xset := fun i => tid_eqb i id || X i.
Definition xdel (X : xset) (id : tid) : xset := fun i => negb (tid_eqb i id) && X i.
Definition hv (X : xset) (tv : tview) : tview := fun id => if X id then None else tv id.

Definition wbound (wv : wview) (n : N) : Prop := forall w, wv w <> None -> w <= n.
Definition WIX (X : xset) (c : core) : Prop :=
  wsorted (c_workers c) /\ rsorted (c_redirects c) /\
  WIv (hv X (TV (c_tasks c))) (find_worker (c_workers c)) (find_redirect (c_redirects c)) /\
  wbound (find_worker (c_workers c)) (c_wcounter c).
Definition WI : core -> Prop := WIX x0.

Lemma WIX_intro X c tv wv rv :
  wsorted (c_workers c) -> rsorted (c_redirects c) -> WIv tv wv rv ->
  (forall id, plo (hv X (TV (c_tasks c)) id) = plo (tv id)) ->
  (forall w, find_worker (c_workers c) w = wv w) ->
  (forall id, find_redirect (c_redirects c) id = rv id) -> wbound wv (c_wcounter c) -> WIX X c.
Proof.
  intros Sw Sr H Et Ew Er Hb. split; [exact Sw|]. split; [exact Sr|]. split; [eapply WIv_ext; eassumption|].
  intros w. rewrite Ew. apply Hb.
Qed.

Lemma wbound_wset wv n w k : wbound wv n -> wv w <> None -> wbound (wset wv w k) n.
Proof.
  intros Hb Hw y. unfold wset. destruct (N.eqb y w) eqn:E; [apply N.eqb_eq in E; subst; intros _; apply Hb; exact Hw | apply Hb].
Qed.
Lemma wbound_wset_none wv n w : wbound wv n -> wbound (wset wv w None) n.
Proof. intros Hb y. unfold wset. destruct (N.eqb y w); [congruence | apply Hb]. Qed.

Lemma WIX_extX X X' c : (forall i, X' i = X i) -> WIX X c -> WIX X' c.
Proof.
  intros E (Sw & Sr & H & Hb). eapply WIX_intro; [exact Sw | exact Sr | exact H | | reflexivity | reflexivity | exact Hb].
  intros id. unfold hv. rewrite E. reflexivity.
Qed.

Lemma WIX_frame X c c' : c_tasks c' = c_tasks c -> c_workers c' = c_workers c -> c_redirects c' = c_redirects c ->
  c_wcounter c' = c_wcounter c -> WIX X c -> WIX X c'.
Proof. unfold WIX. intros -> -> -> ->. auto. Qed.

Lemma TV_set ts x i : TV (set_task ts x) i = tset (TV ts) (t_id x) (Some (t_state x)) i.
Proof. unfold TV, tset. rewrite find_set_task. destruct (tid_eqb i (t_id x)); reflexivity. Qed.

Lemma FW_set ws k x : find_worker (set_worker ws k) x = wset (find_worker ws) (w_id k) (Some k) x.
Proof. unfold wset. apply find_set_worker. Qed.

Lemma FW_del ws w x : wsorted ws -> find_worker (del_worker ws w) x = wset (find_worker ws) w None x.
Proof. intros Hs. unfold wset. apply find_del_worker. exact Hs. Qed.

Lemma FR_set rs id v x : find_redirect (set_redirect rs id v) x = rset (find_redirect rs) id (Some v) x.
Proof. unfold rset. apply find_set_redirect. Qed.

Lemma FR_del rs id x : rsorted rs -> find_redirect (del_redirect rs id) x = rset (find_redirect rs) id None x.
Proof. intros Hs. unfold rset. apply find_del_redirect. exact Hs. Qed.

Lemma hv_tset X tv id s i : X id = false -> hv X (tset tv id s) i = tset (hv X tv) id s i.
Proof.
  intros E. unfold hv, tset. destruct (tid_eqb i id) eqn:Ei; [|reflexivity].
  apply tid_eqb_eq in Ei. subst i. rewrite E. reflexivity.
Qed.

Lemma hv_tset_hidden X tv id s i : X id = true -> hv X (tset tv id s) i = hv X tv i.
Proof.
  intros E. unfold hv, tset. destruct (tid_eqb i id) eqn:Ei; [|reflexivity].
  apply tid_eqb_eq in Ei. subst i. rewrite E. reflexivity.
Qed.

Lemma hv_xadd X tv id i : hv (xadd X id) tv i = tset (hv X tv) id None i.
Proof. unfold hv, xadd, tset. destruct (tid_eqb i id); reflexivity. Qed.

Lemma hv_show X X' tv id s i : (forall j, X j = negb (tid_eqb j id) && X' j) ->
  hv X (tset tv id s) i = tset (hv X' tv) id s i.
Proof.
  intros E. unfold hv, tset. rewrite E. destruct (tid_eqb i id); reflexivity.
Qed.

Lemma hv_set X ts x i : X (t_id x) = false -> hv X (TV (set_task ts x)) i = tset (hv X (TV ts)) (t_id x) (Some (t_state x)) i.
Proof. intros Ex. rewrite <- hv_tset by exact Ex. unfold hv. rewrite TV_set. reflexivity. Qed.

Lemma hv_set_hidden X ts x i : X (t_id x) = true -> hv X (TV (set_task ts x)) i = hv X (TV ts) i.
Proof. intros Ex. rewrite <- (hv_tset_hidden X (TV ts) (t_id x) (Some (t_state x))) by exact Ex. unfold hv. rewrite TV_set. reflexivity. Qed.

Lemma hv_set_show X X' ts x i : (forall j, X' j = negb (tid_eqb j (t_id x)) && X j) ->
  hv X' (TV (set_task ts x)) i = tset (hv X (TV ts)) (t_id x) (Some (t_state x)) i.
Proof. intros EX. rewrite <- (hv_show X' X) by exact EX. unfold hv. rewrite TV_set. reflexivity. Qed.

Lemma TV_find ts id t : find_task ts id = Some t -> TV ts id = Some (t_state t).
Proof. unfold TV. intros ->. reflexivity. Qed.

Lemma hv_find X ts id t : X id = false -> find_task ts id = Some t -> plo (hv X (TV ts) id) = pl (t_state t).
Proof. intros E Hf. unfold hv. rewrite E, (TV_find _ _ _ Hf). reflexivity. Qed.

Lemma hv_hidden X tv id : X id = true -> plo (hv X tv id) = PN.
Proof. intros E. unfold hv. rewrite E. reflexivity. Qed.

Lemma redirect_visible X c id v : WIX X c -> find_redirect (c_redirects c) id = Some v -> X id = false.
Proof.
  intros (_ & _ & H & _) Hr. destruct (X id) eqn:E; [|reflexivity].
  assert (Hp : plo (hv X (TV (c_tasks c)) id) = PR) by (apply (wi_R _ _ _ H); congruence).
  rewrite (hv_hidden _ _ _ E) in Hp. discriminate.
Qed.

Lemma remove_sn_task_spec wk id rq wk' : remove_sn_task wk id rq = Ok wk' ->
  w_id wk' = w_id wk /\ exists a p f, w_assign wk = Sn a p f /\ w_assign wk' = Sn (tid_remove id a) p (res_add_cap f rq (w_res wk)).
Proof.
  unfold remove_sn_task. destruct (w_assign wk) as [a p f|] eqn:E; [|discriminate].
  destruct (tid_mem id a); [|discriminate]. intros H; inversion H; subst. cbn. split; [reflexivity|]. exists a, p, f. auto.
Qed.
Lemma remove_prefill_task_spec wk id wk' : remove_prefill_task wk id = Ok wk' ->
  w_id wk' = w_id wk /\ exists a p f, w_assign wk = Sn a p f /\ w_assign wk' = Sn a (tid_remove id p) f.
Proof.
  unfold remove_prefill_task. destruct (w_assign wk) as [a p f|] eqn:E; [|discriminate].
  destruct (tid_mem id p); [|discriminate]. intros H; inversion H; subst. cbn. split; [reflexivity|]. exists a, p, f. auto.
Qed.
Lemma insert_sn_task_spec wk id rq wk' : insert_sn_task wk id rq = Ok wk' ->
  w_id wk' = w_id wk /\ exists a p f, w_assign wk = Sn a p f /\ w_assign wk' = Sn (tid_insert id a) p (res_sub f rq).
Proof.
  unfold insert_sn_task. destruct (w_assign wk) as [a p f|] eqn:E; [|discriminate].
  destruct (tid_mem id a); [discriminate|]. intros H; inversion H; subst. cbn. split; [reflexivity|]. exists a, p, f. auto.
Qed.
Lemma insert_prefill_task_spec wk id wk' : insert_prefill_task wk id = Ok wk' ->
  w_id wk' = w_id wk /\ exists a p f, w_assign wk = Sn a p f /\ w_assign wk' = Sn a (tid_insert id p) f.
Proof.
  unfold insert_prefill_task. destruct (w_assign wk) as [a p f|] eqn:E; [|discriminate].
  destruct (tid_mem id p); [discriminate|]. intros H; inversion H; subst. cbn. split; [reflexivity|]. exists a, p, f. auto.
Qed.

Lemma insert_sn_exact wk id rq wk' : insert_sn_task wk id rq = Ok wk' ->
  exists a p f, w_assign wk = Sn a p f /\ tid_mem id a = false /\ wk' = with_assign wk (Sn (tid_insert id a) p (res_sub f rq)).
Proof.
  unfold insert_sn_task. destruct (w_assign wk) as [a p f|] eqn:E; [|discriminate].
  destruct (tid_mem id a) eqn:Em; [discriminate|]. intros H; inversion H; subst. exists a, p, f. auto.
Qed.
Lemma remove_prefill_exact wk id wk' : remove_prefill_task wk id = Ok wk' ->
  exists a p f, w_assign wk = Sn a p f /\ tid_mem id p = true /\ wk' = with_assign wk (Sn a (tid_remove id p) f).
Proof.
  unfold remove_prefill_task. destruct (w_assign wk) as [a p f|] eqn:E; [|discriminate].
  destruct (tid_mem id p) eqn:Em; [|discriminate]. intros H; inversion H; subst. exists a, p, f. auto.
Qed.

Lemma get_worker_find ws w wk : get_worker ws w = Ok wk -> find_worker ws w = Some wk.
Proof. unfold get_worker. destruct (find_worker ws w); intros H; inversion H; reflexivity. Qed.

Section Prim.
Variable X : xset.
Variable c : core.
Hypothesis HW : WIX X c.

Let Sw : wsorted (c_workers c) := proj1 HW.
Let Sr : rsorted (c_redirects c) := proj1 (proj2 HW).
Let Hv := proj1 (proj2 (proj2 HW)).
Let Hb : wbound (find_worker (c_workers c)) (c_wcounter c) := proj2 (proj2 (proj2 HW)).

Lemma C_hidden x : X (t_id x) = true -> WIX X (upd_task c x).
Proof.
  intros Ex. eapply WIX_intro; [exact Sw | exact Sr | exact Hv | | reflexivity | reflexivity | exact Hb].
  intros i. f_equal. apply hv_set_hidden. exact Ex.
Qed.

Lemma C_same id t x : find_task (c_tasks c) id = Some t -> t_id x = id -> pl (t_state x) = pl (t_state t) -> WIX X (upd_task c x).
Proof.
  intros Hf <- Hp. destruct (X (t_id x)) eqn:Ex; [apply C_hidden; exact Ex|].
  eapply (WIX_intro _ _ (tset (hv X (TV (c_tasks c))) (t_id x) (Some (t_state x)))); [exact Sw | exact Sr | | | reflexivity | reflexivity | exact Hb].
  - apply V_same; [exact Hv|]. cbn [plo]. rewrite Hp. symmetry. apply hv_find; assumption.
  - intros i. f_equal. apply hv_set. exact Ex.
Qed.

Definition wlc (id : tid) (t : task) : Prop :=
  pl (t_state t) = PN \/ (pl (t_state t) = PR /\ find_redirect (c_redirects c) id = None).

Lemma wlc_wl id t : X id = false -> find_task (c_tasks c) id = Some t -> wlc id t ->
  wl (hv X (TV (c_tasks c))) (find_redirect (c_redirects c)) id.
Proof.
  intros Ex Hf [Hp|[Hp Hr]]; [left | right; split; [|exact Hr]]; rewrite (hv_find _ _ _ _ Ex Hf); exact Hp.
Qed.

Lemma hidden_wl id : X id = true -> wl (hv X (TV (c_tasks c))) (find_redirect (c_redirects c)) id.
Proof. intros Ex. left. apply hv_hidden. exact Ex. Qed.

Lemma C_neutral id t x : find_task (c_tasks c) id = Some t -> t_id x = id -> wlc id t ->
  (pl (t_state x) = PN \/ pl (t_state x) = PR) -> WIX X (upd_task c x).
Proof.
  intros Hf <- Hl Hp. destruct (X (t_id x)) eqn:Ex; [apply C_hidden; exact Ex|].
  eapply (WIX_intro _ _ (tset (hv X (TV (c_tasks c))) (t_id x) (Some (t_state x)))); [exact Sw | exact Sr | | | reflexivity | reflexivity | exact Hb].
  - apply V_neutral; [exact Hv | eapply wlc_wl; eassumption | exact Hp].
  - intros i. f_equal. apply hv_set. exact Ex.
Qed.

Lemma C_hide id t : find_task (c_tasks c) id = Some t -> wlc id t -> WIX (xadd X id) c.
Proof.
  intros Hf Hl. destruct (X id) eqn:Ex.
  - eapply WIX_extX; [|exact HW]. intros i. unfold xadd. destruct (tid_eqb i id) eqn:E; [apply tid_eqb_eq in E; subst; rewrite Ex|]; reflexivity.
  - eapply (WIX_intro _ _ (tset (hv X (TV (c_tasks c))) id None)); [exact Sw | exact Sr | | | reflexivity | reflexivity | exact Hb].
    + apply V_neutral; [exact Hv | eapply wlc_wl; eassumption | left; reflexivity].
    + intros i. rewrite hv_xadd. reflexivity.
Qed.

Lemma C_hide_none id : find_task (c_tasks c) id = None -> WIX (xadd X id) c.
Proof.
  intros Hf. eapply WIX_intro; [exact Sw | exact Sr | exact Hv | | reflexivity | reflexivity | exact Hb].
  intros i. f_equal. unfold hv, xadd. destruct (tid_eqb i id) eqn:E; [|reflexivity].
  apply tid_eqb_eq in E. subst i. cbn [orb]. unfold TV. rewrite Hf. destruct (X id); reflexivity.
Qed.

Lemma C_relA id t w wk wk' rq :
  X id = false -> find_task (c_tasks c) id = Some t -> pl (t_state t) = PA w ->
  find_worker (c_workers c) w = Some wk -> remove_sn_task wk id rq = Ok wk' ->
  WIX (xadd X id) (upd_worker c wk').
Proof.
  intros Ex Hf Hp Hw Hr. destruct (remove_sn_task_spec _ _ _ _ Hr) as (Hi & a & p & f & Ea & Ea').
  destruct (find_worker_some _ _ _ Hw) as [_ Hwi].
  eapply (WIX_intro _ _ (tset (hv X (TV (c_tasks c))) id None) (wset (find_worker (c_workers c)) w (Some wk'))).
  - apply set_worker_sorted. exact Sw.
  - exact Sr.
  - eapply V_relA; [exact Hv | rewrite (hv_find _ _ _ _ Ex Hf); exact Hp | exact Hw | exact Ea | exact Ea' | reflexivity].
  - intros i. rewrite hv_xadd. reflexivity.
  - intros x. cbn [c_workers upd_worker with_workers]. rewrite FW_set, Hi, Hwi. reflexivity.
  - reflexivity.
  - apply wbound_wset; [exact Hb | rewrite Hw; discriminate].
Qed.

Lemma C_relP id t w wk wk' :
  X id = false -> find_task (c_tasks c) id = Some t -> pl (t_state t) = PP w ->
  find_worker (c_workers c) w = Some wk -> remove_prefill_task wk id = Ok wk' ->
  WIX (xadd X id) (upd_worker c wk').
Proof.
  intros Ex Hf Hp Hw Hr. destruct (remove_prefill_task_spec _ _ _ Hr) as (Hi & a & p & f & Ea & Ea').
  destruct (find_worker_some _ _ _ Hw) as [_ Hwi].
  eapply (WIX_intro _ _ (tset (hv X (TV (c_tasks c))) id None) (wset (find_worker (c_workers c)) w (Some wk'))).
  - apply set_worker_sorted. exact Sw.
  - exact Sr.
  - eapply V_relP; [exact Hv | rewrite (hv_find _ _ _ _ Ex Hf); exact Hp | exact Hw | exact Ea | exact Ea' | left; reflexivity].
  - intros i. rewrite hv_xadd. reflexivity.
  - intros x. cbn [c_workers upd_worker with_workers]. rewrite FW_set, Hi, Hwi. reflexivity.
  - reflexivity.
  - apply wbound_wset; [exact Hb | rewrite Hw; discriminate].
Qed.

Lemma C_show X' id x : X id = true -> (forall j, X' j = negb (tid_eqb j id) && X j) -> t_id x = id ->
  (pl (t_state x) = PN \/ pl (t_state x) = PR) -> WIX X' (upd_task c x).
Proof.
  intros Ex EX <- Hp.
  eapply (WIX_intro _ _ (tset (hv X (TV (c_tasks c))) (t_id x) (Some (t_state x)))); [exact Sw | exact Sr | | | reflexivity | reflexivity | exact Hb].
  - apply V_neutral; [exact Hv | apply hidden_wl; exact Ex | exact Hp].
  - intros i. f_equal. apply hv_set_show. exact EX.
Qed.

Lemma C_show0 X' id : X id = true -> (forall j, X' j = negb (tid_eqb j id) && X j) ->
  (plo (TV (c_tasks c) id) = PN \/ plo (TV (c_tasks c) id) = PR) -> WIX X' c.
Proof.
  intros Ex EX Hp.
  eapply (WIX_intro _ _ (tset (hv X (TV (c_tasks c))) id (TV (c_tasks c) id))); [exact Sw | exact Sr | | | reflexivity | reflexivity | exact Hb].
  - apply V_neutral; [exact Hv | apply hidden_wl; exact Ex | exact Hp].
  - intros i. f_equal. rewrite <- (hv_show X' X) by exact EX. unfold hv. rewrite tset_same. reflexivity.
Qed.

Lemma C_putA X' id x w wk wk' rq :
  X id = true -> (forall j, X' j = negb (tid_eqb j id) && X j) -> t_id x = id -> pl (t_state x) = PA w ->
  find_worker (c_workers c) w = Some wk -> insert_sn_task wk id rq = Ok wk' ->
  WIX X' (upd_worker (upd_task c x) wk').
Proof.
  intros Ex EX <- Hp Hw Hr. destruct (insert_sn_task_spec _ _ _ _ Hr) as (Hwi' & a & p & f & Ea & Ea').
  destruct (find_worker_some _ _ _ Hw) as [_ Hwi].
  eapply (WIX_intro _ _ (tset (hv X (TV (c_tasks c))) (t_id x) (Some (t_state x))) (wset (find_worker (c_workers c)) w (Some wk'))).
  - apply set_worker_sorted. exact Sw.
  - exact Sr.
  - eapply V_putA; [exact Hv | apply hidden_wl; exact Ex | exact Hw | exact Ea | exact Ea' | exact Hp].
  - intros i. f_equal. apply hv_set_show. exact EX.
  - intros y. cbn [c_workers upd_task upd_worker with_tasks with_workers]. rewrite FW_set, Hwi', Hwi. reflexivity.
  - reflexivity.
  - apply wbound_wset; [exact Hb | rewrite Hw; discriminate].
Qed.

Lemma C_putP X' id x w wk wk' :
  X id = true -> (forall j, X' j = negb (tid_eqb j id) && X j) -> t_id x = id -> pl (t_state x) = PP w ->
  find_worker (c_workers c) w = Some wk -> insert_prefill_task wk id = Ok wk' ->
  WIX X' (upd_worker (upd_task c x) wk').
Proof.
  intros Ex EX <- Hp Hw Hr. destruct (insert_prefill_task_spec _ _ _ Hr) as (Hwi' & a & p & f & Ea & Ea').
  destruct (find_worker_some _ _ _ Hw) as [_ Hwi].
  eapply (WIX_intro _ _ (tset (hv X (TV (c_tasks c))) (t_id x) (Some (t_state x))) (wset (find_worker (c_workers c)) w (Some wk'))).
  - apply set_worker_sorted. exact Sw.
  - exact Sr.
  - eapply V_putP; [exact Hv | apply hidden_wl; exact Ex | exact Hw | exact Ea | exact Ea' | exact Hp].
  - intros i. f_equal. apply hv_set_show. exact EX.
  - intros y. cbn [c_workers upd_task upd_worker with_tasks with_workers]. rewrite FW_set, Hwi', Hwi. reflexivity.
  - reflexivity.
  - apply wbound_wset; [exact Hb | rewrite Hw; discriminate].
Qed.

Lemma C_relR id w v wk wk' rq :
  find_redirect (c_redirects c) id = Some (w, v) -> find_worker (c_workers c) w = Some wk -> remove_sn_task wk id rq = Ok wk' ->
  WIX X (upd_worker (with_redirects c (del_redirect (c_redirects c) id)) wk').
Proof.
  intros Hr Hw Hrm. destruct (remove_sn_task_spec _ _ _ _ Hrm) as (Hi & a & p & f & Ea & Ea').
  destruct (find_worker_some _ _ _ Hw) as [_ Hwi].
  eapply (WIX_intro _ _ (hv X (TV (c_tasks c))) (wset (find_worker (c_workers c)) w (Some wk')) (rset (find_redirect (c_redirects c)) id None)).
  - apply set_worker_sorted. exact Sw.
  - apply del_redirect_sorted. exact Sr.
  - eapply V_relR; [exact Hv | exact Hr | exact Hw | exact Ea | exact Ea'].
  - reflexivity.
  - intros y. cbn [c_workers upd_worker with_workers with_redirects]. rewrite FW_set, Hi, Hwi. reflexivity.
  - intros y. cbn [c_redirects upd_worker with_workers with_redirects]. apply FR_del. exact Sr.
  - apply wbound_wset; [exact Hb | rewrite Hw; discriminate].
Qed.

Lemma C_putR id t w v wk wk' rq :
  X id = false -> find_task (c_tasks c) id = Some t -> pl (t_state t) = PR -> find_redirect (c_redirects c) id = None ->
  find_worker (c_workers c) w = Some wk -> insert_sn_task wk id rq = Ok wk' ->
  WIX X (with_redirects (upd_worker c wk') (set_redirect (c_redirects c) id (w, v))).
Proof.
  intros Ex Hf Hp Hr Hw Hin. destruct (insert_sn_task_spec _ _ _ _ Hin) as (Hi & a & p & f & Ea & Ea').
  destruct (find_worker_some _ _ _ Hw) as [_ Hwi].
  eapply (WIX_intro _ _ (hv X (TV (c_tasks c))) (wset (find_worker (c_workers c)) w (Some wk')) (rset (find_redirect (c_redirects c)) id (Some (w, v)))).
  - apply set_worker_sorted. exact Sw.
  - apply set_redirect_sorted. exact Sr.
  - eapply V_putR; [exact Hv | rewrite (hv_find _ _ _ _ Ex Hf); exact Hp | exact Hr | exact Hw | exact Ea | exact Ea'].
  - reflexivity.
  - intros y. cbn [c_workers upd_worker with_workers with_redirects]. rewrite FW_set, Hi, Hwi. reflexivity.
  - intros y. cbn [c_redirects upd_worker with_workers with_redirects]. apply FR_set.
  - apply wbound_wset; [exact Hb | rewrite Hw; discriminate].
Qed.

Lemma C_redirect_done id w v x :
  find_redirect (c_redirects c) id = Some (w, v) -> t_id x = id -> pl (t_state x) = PA w ->
  WIX X (upd_task (with_redirects c (del_redirect (c_redirects c) id)) x).
Proof.
  intros Hr <- Hp. pose proof (redirect_visible _ _ _ _ HW Hr) as Ex.
  eapply (WIX_intro _ _ (tset (hv X (TV (c_tasks c))) (t_id x) (Some (t_state x))) (find_worker (c_workers c)) (rset (find_redirect (c_redirects c)) (t_id x) None)).
  - exact Sw.
  - apply del_redirect_sorted. exact Sr.
  - eapply V_redirect_done; [exact Hv | exact Hr | exact Hp].
  - intros i. f_equal. apply hv_set. exact Ex.
  - reflexivity.
  - intros y. cbn [c_redirects upd_task with_tasks with_redirects]. apply FR_del. exact Sr.
  - exact Hb.
Qed.

Lemma C_wsame w wk wk' : find_worker (c_workers c) w = Some wk -> w_id wk' = w -> w_assign wk' = w_assign wk -> WIX X (upd_worker c wk').
Proof.
  intros Hw Hi Ha.
  eapply (WIX_intro _ _ (hv X (TV (c_tasks c))) (wset (find_worker (c_workers c)) w (Some wk'))).
  - apply set_worker_sorted. exact Sw.
  - exact Sr.
  - eapply V_wsame; [exact Hv | exact Hw | exact Ha].
  - reflexivity.
  - intros y. cbn [c_workers upd_worker with_workers]. rewrite FW_set, Hi. reflexivity.
  - reflexivity.
  - apply wbound_wset; [exact Hb | rewrite Hw; discriminate].
Qed.

Lemma C_wempty w wk' f : wfree (find_worker (c_workers c)) w -> w <= c_wcounter c -> w_id wk' = w -> w_assign wk' = Sn [] [] f -> WIX X (upd_worker c wk').
Proof.
  intros Hfree Hle Hi Ha.
  eapply (WIX_intro _ _ (hv X (TV (c_tasks c))) (wset (find_worker (c_workers c)) w (Some wk'))).
  - apply set_worker_sorted. exact Sw.
  - exact Sr.
  - apply V_wempty; [exact Hv | exact Hfree | eapply sets_ok_empty; exact Ha |].
    eapply wfree_empty; [unfold wset; rewrite N.eqb_refl; reflexivity | exact Ha].
  - reflexivity.
  - intros y. cbn [c_workers upd_worker with_workers]. rewrite FW_set, Hi. reflexivity.
  - reflexivity.
  - intros y. unfold wset. destruct (N.eqb y w) eqn:E; [apply N.eqb_eq in E; subst y; intros _; exact Hle | apply Hb].
Qed.

Lemma C_wdel w : wfree (find_worker (c_workers c)) w -> WIX X (with_workers c (del_worker (c_workers c) w)).
Proof.
  intros Hfree.
  eapply (WIX_intro _ _ (hv X (TV (c_tasks c))) (wset (find_worker (c_workers c)) w None)).
  - apply del_worker_sorted. exact Sw.
  - exact Sr.
  - apply V_wempty; [exact Hv | exact Hfree | apply sets_ok_none |].
    apply wfree_none. unfold wset. rewrite N.eqb_refl. reflexivity.
  - reflexivity.
  - intros y. cbn [c_workers with_workers]. apply FW_del. exact Sw.
  - reflexivity.
  - apply wbound_wset_none. exact Hb.
Qed.

End Prim.

Lemma WIX_wcounter X c n : c_wcounter c <= n -> WIX X c -> WIX X (with_wcounter c n).
Proof.
  intros Hle (Sw & Sr & H & Hb). split; [exact Sw|]. split; [exact Sr|]. split; [exact H|].
  intros w Hw. specialize (Hb w Hw). cbn. lia.
Qed.

Lemma WIX_unhide X c : WIX X c -> (forall i, X i = true -> find_task (c_tasks c) i = None) -> WIX x0 c.
Proof.
  intros (Sw & Sr & H & Hb) Habs. eapply WIX_intro; [exact Sw | exact Sr | exact H | | reflexivity | reflexivity | exact Hb].
  intros i. f_equal. unfold hv, x0. destruct (X i) eqn:E; [|reflexivity]. unfold TV. rewrite (Habs i E). reflexivity.
Qed.

Section Prim2.
Variable X : xset.
Variable c : core.
Hypothesis HW : WIX X c.

Let Sw : wsorted (c_workers c) := proj1 HW.
Let Sr : rsorted (c_redirects c) := proj1 (proj2 HW).
Let Hv := proj1 (proj2 (proj2 HW)).
Let Hb : wbound (find_worker (c_workers c)) (c_wcounter c) := proj2 (proj2 (proj2 HW)).

Lemma C_new id x : find_task (c_tasks c) id = None -> t_id x = id -> pl (t_state x) = PN -> WIX X (upd_task c x).
Proof.
  intros Hf <- Hp. destruct (X (t_id x)) eqn:Ex; [apply C_hidden; assumption|].
  eapply (WIX_intro _ _ (tset (hv X (TV (c_tasks c))) (t_id x) (Some (t_state x)))); [exact Sw | exact Sr | | | reflexivity | reflexivity | exact Hb].
  - apply V_neutral; [exact Hv | | left; exact Hp]. left. unfold hv, TV. rewrite Ex, Hf. reflexivity.
  - intros i. f_equal. apply hv_set. exact Ex.
Qed.

Lemma C_relM id t ws c' :
  X id = false -> find_task (c_tasks c) id = Some t -> pl (t_state t) = PM ws ->
  c_tasks c' = c_tasks c -> c_redirects c' = c_redirects c -> c_wcounter c' = c_wcounter c -> wsorted (c_workers c') ->
  (forall x, n_mem x ws = false -> find_worker (c_workers c') x = find_worker (c_workers c) x) ->
  (forall x, n_mem x ws = true -> sets_ok (find_worker (c_workers c') x) /\ wfree (find_worker (c_workers c')) x) ->
  (forall x, find_worker (c_workers c') x <> None -> find_worker (c_workers c) x <> None) ->
  WIX (xadd X id) c'.
Proof.
  intros Ex Hf Hp Et Er Ec Sw' Hout Hin Hdom.
  eapply (WIX_intro _ _ (tset (hv X (TV (c_tasks c))) id None) (find_worker (c_workers c')) (find_redirect (c_redirects c))).
  - exact Sw'.
  - rewrite Er. exact Sr.
  - eapply V_relM; [exact Hv | rewrite (hv_find _ _ _ _ Ex Hf); exact Hp | exact Hout | exact Hin | reflexivity].
  - intros i. rewrite Et, hv_xadd. reflexivity.
  - reflexivity.
  - rewrite Er. reflexivity.
  - intros x Hx. rewrite Ec. apply Hb. apply Hdom. exact Hx.
Qed.

Lemma C_putM X' id x ws c' :
  X id = true -> (forall j, X' j = negb (tid_eqb j id) && X j) -> t_id x = id -> pl (t_state x) = PM ws ->
  c_tasks c' = c_tasks c -> c_redirects c' = c_redirects c -> c_wcounter c' = c_wcounter c -> wsorted (c_workers c') ->
  (forall y, n_mem y ws = false -> find_worker (c_workers c') y = find_worker (c_workers c) y) ->
  (forall y, n_mem y ws = true -> wfree (find_worker (c_workers c)) y /\ exists wk root, find_worker (c_workers c') y = Some wk /\ w_assign wk = Mn id root) ->
  (forall y, find_worker (c_workers c') y <> None -> find_worker (c_workers c) y <> None) ->
  WIX X' (upd_task c' x).
Proof.
  intros Ex EX <- Hp Et Er Ec Sw' Hout Hin Hdom.
  eapply (WIX_intro _ _ (tset (hv X (TV (c_tasks c))) (t_id x) (Some (t_state x))) (find_worker (c_workers c')) (find_redirect (c_redirects c))).
  - exact Sw'.
  - cbn [c_redirects upd_task with_tasks]. rewrite Er. exact Sr.
  - eapply V_putM; [exact Hv | apply hidden_wl; exact Ex | exact Hout | exact Hin | exact Hp].
  - intros i. cbn [c_tasks upd_task with_tasks]. rewrite Et. f_equal. apply hv_set_show. exact EX.
  - reflexivity.
  - cbn [c_redirects upd_task with_tasks]. rewrite Er. reflexivity.
  - intros y Hy. cbn [c_wcounter upd_task with_tasks]. rewrite Ec. apply Hb. apply Hdom. exact Hy.
Qed.

Lemma C_shrinkM id t ws w x :
  X id = false -> find_task (c_tasks c) id = Some t -> pl (t_state t) = PM ws -> inM (find_worker (c_workers c)) w id = true ->
  t_id x = id -> pl (t_state x) = PM (filter (fun y => negb (N.eqb y w)) ws) ->
  WIX X (upd_task (with_workers c (del_worker (c_workers c) w)) x).
Proof.
  intros Ex Hf Hp Hm <- Hpx.
  eapply (WIX_intro _ _ (tset (hv X (TV (c_tasks c))) (t_id x) (Some (t_state x))) (wset (find_worker (c_workers c)) w None) (find_redirect (c_redirects c))).
  - apply del_worker_sorted. exact Sw.
  - exact Sr.
  - eapply V_shrinkM; [exact Hv | rewrite (hv_find _ _ _ _ Ex Hf); exact Hp | exact Hm | exact Hpx].
  - intros i. f_equal. apply hv_set. exact Ex.
  - intros y. cbn [c_workers upd_task with_tasks with_workers]. apply FW_del. exact Sw.
  - reflexivity.
  - apply wbound_wset_none. exact Hb.
Qed.

End Prim2.

Lemma reset_idem wk : reset_mn_task (reset_mn_task wk) = reset_mn_task wk.
Proof. destruct wk; reflexivity. Qed.

Lemma reset_mn_all_spec l : forall c c', reset_mn_all c l = Ok c' ->
  c_tasks c' = c_tasks c /\ c_redirects c' = c_redirects c /\ c_wcounter c' = c_wcounter c /\
  (wsorted (c_workers c) -> wsorted (c_workers c')) /\
  forall x, find_worker (c_workers c') x = if n_mem x l then option_map reset_mn_task (find_worker (c_workers c) x) else find_worker (c_workers c) x.
Proof.
  induction l as [|w r IH]; cbn [reset_mn_all n_mem]; intros c c' H.
  - inversion H; subst. repeat split; auto.
  - apply bind_ok in H. destruct H as (wk & Hw & H). apply get_worker_find in Hw.
    destruct (find_worker_some _ _ _ Hw) as [_ Hwi].
    destruct (IH _ _ H) as (I1 & I2 & I3 & I4 & I5). cbn [c_tasks c_redirects c_wcounter c_workers upd_worker with_workers] in *.
    split; [exact I1|]. split; [exact I2|]. split; [exact I3|]. split; [intros S; apply I4; apply set_worker_sorted; exact S|].
    intros x. rewrite I5, FW_set. unfold wset. cbn [w_id reset_mn_task with_assign]. rewrite Hwi.
    destruct (N.eqb x w) eqn:E; cbn [orb].
    + apply N.eqb_eq in E. subst x. rewrite Hw. cbn [option_map]. destruct (n_mem w r); [rewrite reset_idem|]; reflexivity.
    + reflexivity.
Qed.

Lemma reset_mn_workers_all l : forall c id c', reset_mn_workers c l id = Ok c' -> reset_mn_all c l = Ok c'.
Proof.
  induction l as [|w r IH]; cbn [reset_mn_workers reset_mn_all]; intros c id c' H; [exact H|].
  apply bind_ok in H. destruct H as (wk & Hw & H). rewrite Hw. cbn [bind].
  destruct (w_assign wk); [discriminate|]. destruct (tid_eqb t id); [|discriminate]. eapply IH; exact H.
Qed.

Lemma C_relM_reset X c id t ws c0 l c' :
  WIX X c -> X id = false -> find_task (c_tasks c) id = Some t -> pl (t_state t) = PM ws ->
  c_tasks c0 = c_tasks c -> c_redirects c0 = c_redirects c -> c_wcounter c0 = c_wcounter c -> wsorted (c_workers c0) ->
  (forall x, n_mem x ws = false -> find_worker (c_workers c0) x = find_worker (c_workers c) x) ->
  (forall x, n_mem x ws = true -> find_worker (c_workers c0) x = find_worker (c_workers c) x \/ find_worker (c_workers c0) x = None) ->
  (forall x, n_mem x ws = true -> n_mem x l = true \/ find_worker (c_workers c0) x = None) ->
  (forall x, n_mem x l = true -> n_mem x ws = true) ->
  reset_mn_all c0 l = Ok c' -> WIX (xadd X id) c'.
Proof.
  intros HW Ex Hf Hp Et Er Ec Sw0 Hout Hin Hcov Hsub Hreset.
  destruct (reset_mn_all_spec _ _ _ Hreset) as (T1 & R1 & C1 & S1 & F1).
  eapply (C_relM X c HW id t ws c'); [exact Ex | exact Hf | exact Hp | congruence | congruence | congruence | apply S1; exact Sw0 | | |].
  - intros x Hx. rewrite F1. destruct (n_mem x l) eqn:El; [rewrite (Hsub x El) in Hx; discriminate | apply Hout; exact Hx].
  - intros x Hx. rewrite F1. unfold wfree, inA, inP, inM. rewrite F1.
    destruct (n_mem x l) eqn:El.
    + destruct (find_worker (c_workers c0) x) as [wk|]; cbn [option_map]; [|split; [apply sets_ok_none | auto]].
      split; [eapply sets_ok_empty; reflexivity | auto].
    + destruct (Hcov x Hx) as [X1|X1]; [congruence|]. rewrite X1. split; [apply sets_ok_none | auto].
  - intros x Hx. rewrite F1 in Hx.
    assert (H0 : find_worker (c_workers c0) x <> None) by (destruct (n_mem x l); [destruct (find_worker (c_workers c0) x); [discriminate | exact Hx] | exact Hx]).
    destruct (n_mem x ws) eqn:Ews; [destruct (Hin x Ews) as [X1|X1]; congruence | rewrite <- (Hout x Ews); exact H0].
Qed.

Lemma set_mn_workers_spec l : forall c id first c', set_mn_workers c id l first = Ok c' ->
  c_tasks c' = c_tasks c /\ c_redirects c' = c_redirects c /\ c_wcounter c' = c_wcounter c /\
  (wsorted (c_workers c) -> wsorted (c_workers c')) /\
  (forall y, n_mem y l = false -> find_worker (c_workers c') y = find_worker (c_workers c) y) /\
  (forall y, n_mem y l = true -> wfree (find_worker (c_workers c)) y /\ exists wk root, find_worker (c_workers c') y = Some wk /\ w_assign wk = Mn id root) /\
  (forall y, find_worker (c_workers c') y <> None -> find_worker (c_workers c) y <> None).
Proof.
  induction l as [|w r IH]; cbn [set_mn_workers n_mem]; intros c id first c' H.
  - inversion H; subst. split; [reflexivity|]. split; [reflexivity|]. split; [reflexivity|]. split; [auto|]. split; [auto|].
    split; [intros y Hy; discriminate | auto].
  - apply bind_ok in H. destruct H as (wk & Hw & H). apply get_worker_find in Hw.
    apply bind_ok in H. destruct H as (wk' & Hset & H).
    destruct (find_worker_some _ _ _ Hw) as [_ Hwi].
    unfold set_mn_task in Hset. destruct (worker_is_free wk) eqn:Efree; [|discriminate]. inversion Hset; subst wk'. clear Hset.
    assert (Hfree : wfree (find_worker (c_workers c)) w).
    { unfold worker_is_free in Efree. destruct (w_assign wk) as [a p f|] eqn:Ea; [|discriminate].
      destruct a; [|discriminate]. destruct p; [|discriminate]. eapply wfree_empty; [exact Hw | exact Ea]. }
    destruct (IH _ _ _ _ H) as (I1 & I2 & I3 & I4 & I5 & I6 & I7).
    cbn [c_tasks c_redirects c_wcounter c_workers upd_worker with_workers] in *.
    assert (Fc1 : forall y, find_worker (set_worker (c_workers c) (with_assign wk (Mn id first))) y
                  = if N.eqb y w then Some (with_assign wk (Mn id first)) else find_worker (c_workers c) y).
    { intros y. rewrite find_set_worker. cbn [w_id with_assign]. rewrite Hwi. reflexivity. }
    split; [exact I1|]. split; [exact I2|]. split; [exact I3|]. split; [intros S; apply I4; apply set_worker_sorted; exact S|].
    split; [|split].
    + intros y Hy. apply orb_false_iff in Hy. destruct Hy as [E1 E2]. rewrite (I5 y E2), Fc1, E1. reflexivity.
    + intros y Hy. destruct (n_mem y r) eqn:Er.
      * destruct (I6 y Er) as [F (wk2 & root & E1 & E2)]. split; [|exists wk2, root; auto].
        destruct (N.eqb y w) eqn:E; [|intros i; specialize (F i); unfold inA, inP, inM in *; rewrite Fc1, E in F; exact F].
        apply N.eqb_eq in E. subst y. exfalso. destruct (F id) as (_ & _ & F3). unfold inM in F3. rewrite Fc1, N.eqb_refl in F3.
        cbn [w_assign with_assign] in F3. rewrite tid_eqb_refl in F3. discriminate.
      * rewrite orb_false_r in Hy. apply N.eqb_eq in Hy. subst y. split; [exact Hfree|].
        exists (with_assign wk (Mn id first)), first. rewrite (I5 w Er), Fc1, N.eqb_refl. auto.
    + intros y Hy. apply I7 in Hy. rewrite Fc1 in Hy. destruct (N.eqb y w) eqn:E; [apply N.eqb_eq in E; subst y; congruence | exact Hy].
Qed.

Lemma rcf_TV deps : forall ts cid ts', remove_consumer_from ts deps cid = Ok ts' -> forall i, TV ts' i = TV ts i.
Proof.
  induction deps as [|d r IH]; cbn [remove_consumer_from]; intros ts cid ts' H i; [inversion H; reflexivity|].
  destruct (find_task ts d) as [input|] eqn:Ef; [|eapply IH; exact H].
  destruct (tid_mem cid (t_consumers input)); [|discriminate].
  rewrite (IH _ _ _ H i), TV_set. cbn [t_id t_state with_consumers].
  destruct (find_task_some _ _ _ Ef) as [_ Hid]. unfold tset. destruct (tid_eqb i (t_id input)) eqn:E; [|reflexivity].
  apply tid_eqb_eq in E. subst i. unfold TV. rewrite Hid, Ef. reflexivity.
Qed.

Lemma remove_task_view c id c' stt : CS c -> remove_task c id = Ok (c', stt) ->
  c_workers c' = c_workers c /\ c_redirects c' = c_redirects c /\ c_wcounter c' = c_wcounter c /\
  TV (c_tasks c) id = Some stt /\ forall i, TV (c_tasks c') i = tset (TV (c_tasks c)) id None i.
Proof.
  intros Hs H. unfold remove_task in H. destruct (find_task (c_tasks c) id) as [t|] eqn:Ef; [|discriminate].
  assert (Hdel : forall i, TV (del_task (c_tasks c) id) i = tset (TV (c_tasks c)) id None i).
  { intros i. unfold TV, tset. rewrite find_del_task by (apply CS_sorted; exact Hs). destruct (tid_eqb i id); reflexivity. }
  assert (Hst : stt = t_state t).
  { destruct (t_state t); try (inversion H; reflexivity). apply bind_ok in H. destruct H as (c2 & _ & H).
    destruct (N.ltb 0 unfinished_deps); [apply bind_ok in H; destruct H as (ts & _ & H)|]; inversion H; reflexivity. }
  assert (Hv : TV (c_tasks c) id = Some stt) by (unfold TV; rewrite Ef, Hst; reflexivity).
  destruct (t_state t) eqn:Est; try (inversion H; subst; cbn; repeat split; auto; fail).
  apply bind_ok in H. destruct H as (c2 & H2 & H).
  assert (E2 : c_tasks c2 = del_task (c_tasks c) id /\ c_workers c2 = c_workers c /\ c_redirects c2 = c_redirects c /\ c_wcounter c2 = c_wcounter c).
  { destruct (N.eqb unfinished_deps 0); [inv_binds H2|]; inversion H2; subst; cbn; auto. }
  destruct E2 as (T2 & W2 & R2 & C2).
  destruct (N.ltb 0 unfinished_deps).
  - apply bind_ok in H. destruct H as (ts & Hr & H). inversion H; subst. cbn [c_tasks c_workers c_redirects c_wcounter with_tasks].
    split; [exact W2|]. split; [exact R2|]. split; [exact C2|]. split; [exact Hv|].
    intros i. rewrite (rcf_TV _ _ _ _ Hr i), T2. apply Hdel.
  - inversion H; subst. split; [exact W2|]. split; [exact R2|]. split; [exact C2|]. split; [exact Hv|].
    intros i. rewrite T2. apply Hdel.
Qed.

Lemma remove_task_WIX X c id c' stt : WIX X c -> CS c -> remove_task c id = Ok (c', stt) ->
  (X id = true \/ pl stt = PN) -> WIX X c'.
Proof.
  intros (Sw & Sr & H & Hb) Hs Hrm Hc. destruct (remove_task_view _ _ _ _ Hs Hrm) as (W & R & C & Hv & Ht).
  destruct (X id) eqn:Ex.
  - eapply WIX_intro; [rewrite W; exact Sw | rewrite R; exact Sr | exact H | | rewrite W; reflexivity | rewrite R; reflexivity | rewrite C; exact Hb].
    intros i. f_equal. transitivity (hv X (tset (TV (c_tasks c)) id None) i); [unfold hv; rewrite Ht; reflexivity|].
    apply hv_tset_hidden. exact Ex.
  - destruct Hc as [Hc|Hc]; [discriminate|].
    eapply (WIX_intro _ _ (tset (hv X (TV (c_tasks c))) id None)); [rewrite W; exact Sw | rewrite R; exact Sr | | | rewrite W; reflexivity | rewrite R; reflexivity | rewrite C; exact Hb].
    + apply V_neutral; [exact H | | left; reflexivity]. left. unfold hv. rewrite Ex, Hv. exact Hc.
    + intros i. f_equal. rewrite <- hv_tset by exact Ex. unfold hv. rewrite Ht. reflexivity.
Qed.

Lemma WI_member_P c w wk a p f id t :
  WI c -> find_worker (c_workers c) w = Some wk -> w_assign wk = Sn a p f -> tid_mem id p = true ->
  find_task (c_tasks c) id = Some t -> pl (t_state t) = PP w.
Proof.
  intros (_ & _ & H & _) Hw Ea Hm Hf.
  pose proof (wi_P _ _ _ H w id) as X. unfold inP, wantP, hv, x0 in X. rewrite Hw, Ea, Hm, (TV_find _ _ _ Hf) in X. cbn [plo] in X.
  destruct (pl (t_state t)); try discriminate. symmetry in X. apply N.eqb_eq in X. subst. reflexivity.
Qed.

Lemma WI_member_A c w wk a p f id t :
  WI c -> find_worker (c_workers c) w = Some wk -> w_assign wk = Sn a p f -> tid_mem id a = true ->
  find_task (c_tasks c) id = Some t ->
  pl (t_state t) = PA w \/ (pl (t_state t) = PR /\ exists v, find_redirect (c_redirects c) id = Some (w, v)).
Proof.
  intros (_ & _ & H & _) Hw Ea Hm Hf.
  pose proof (wi_A _ _ _ H w id) as X. unfold inA, wantA, hv, x0 in X. rewrite Hw, Ea, Hm, (TV_find _ _ _ Hf) in X. cbn [plo] in X.
  destruct (pl (t_state t)); try discriminate.
  - symmetry in X. apply N.eqb_eq in X. subst. left. reflexivity.
  - right. split; [reflexivity|]. destruct (find_redirect (c_redirects c) id) as [[tg v]|]; [|discriminate].
    symmetry in X. apply N.eqb_eq in X. subst. eauto.
Qed.

Lemma WI_absent_member c w wk a p f id :
  WI c -> find_worker (c_workers c) w = Some wk -> w_assign wk = Sn a p f -> find_task (c_tasks c) id = None ->
  tid_mem id a = false /\ tid_mem id p = false.
Proof.
  intros (_ & _ & H & _) Hw Ea Hf.
  pose proof (wi_A _ _ _ H w id) as X. pose proof (wi_P _ _ _ H w id) as Y.
  unfold inA, wantA, inP, wantP, hv, x0, TV in X, Y. rewrite Hw, Ea, Hf in X, Y. cbn in X, Y. auto.
Qed.
