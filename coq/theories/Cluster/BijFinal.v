(** C02 bijection, part 6: submits, open / close / forget, and the theorem for every history. *)
From HQ Require Import Base.Prelude Cluster.Types Cluster.Core Cluster.Reactor Cluster.Worker Cluster.Server Cluster.Sys Cluster.ProofsJob Cluster.ProofsMore Cluster.ProofsTerminal Cluster.ProofsStep Cluster.ProofsFinal Cluster.BijBase Cluster.BijCore Cluster.BijHq Cluster.BijSt Cluster.BijReact.
From HQ Require Import Cluster.ModelFacts.
From Coq Require Import ZArith Lia Sorting.Sorted.
From HQ Require Import Cluster.RejHyp Cluster.StepShape.
Local Open Scope N_scope.

Arguments N.add : simpl never.
Arguments N.sub : simpl never.

Lemma on_new_tasks_grow s ts s' :
  CS (core_of s) -> KD (K s) -> Forall new_ok ts -> on_new_tasks s ts = Ok s' ->
  CS (core_of s') /\ KD (K s') /\ (forall x, present (K s') x <-> present (K s) x \/ In x (map t_id ts)).
Proof.
  intros Hs Hd Hn H. unfold on_new_tasks in H.
  destruct ts as [|t0 tr] eqn:Et; [inversion H; subst; split; [exact Hs | split; [exact Hd | intros x; cbn; tauto]]|].
  rewrite <- Et in *. clear Et.
  apply bind_ok in H. destruct H as ([c' retracted] & Ha & H). apply bind_ok in H. destruct H as (s1 & Hr & H). inversion H; subst.
  destruct (add_new_tasks_spec _ _ _ _ _ Hs Hd Hn Ha) as (A1 & A2 & A3).
  pose proof (process_retracted_K (st_core s c') _ _ A1 Hr) as K1.
  change (CS (core_of s1) /\ KD (K s1) /\ (forall x, present (K s1) x <-> present (K s) x \/ In x (map t_id ts))).
  rewrite K1. split; [eapply CS_keys; [exact K1 | exact A1] | split; [exact A2 | exact A3]].
Qed.

Lemma attach_ids_find ids : forall j j', attach_ids j ids = Ok j' ->
  j_id j' = j_id j /\ forall k, jt_find (j_tasks j') k = if n_mem k ids then Some JW else jt_find (j_tasks j) k.
Proof.
  induction ids as [|i r IH]; cbn [attach_ids n_mem]; intros j j' H; [inversion H; subst; split; reflexivity|].
  destruct (jt_find (j_tasks j) i) eqn:Ef; [discriminate|].
  destruct (IH _ _ H) as [I1 I2]. split; [rewrite I1; reflexivity|].
  intros k. rewrite I2. destruct (n_mem k r); [rewrite orb_true_r; reflexivity|]. rewrite orb_false_r.
  cbn [job_set_task job_upd j_tasks]. rewrite jt_find_set. reflexivity.
Qed.

Lemma submit_tail_CB s4 jid ids tasks s' :
  CB s4 ->
  map t_id tasks = map (fun i => (jid, i)) ids -> Forall new_ok tasks ->
  submit_tail s4 jid ids tasks = Ok s' ->
  CB s'.
Proof.
  intros HC Hids Hn H. unfold submit_tail in H. apply bind_ok in H. destruct H as (j & Hj & H). apply bind_ok in H. destruct H as (j' & Ha & H).
  apply bind_ok in H. destruct H as (s6 & H6 & H).
  destruct (jt_get _ _ _ _ Hj) as [Ej Eid]. destruct (attach_ids_find _ _ _ Ha) as [I1 I2].
  destruct (on_new_tasks_grow (hq_set_job s4 j') tasks s6 (cb_s _ HC) (cb_d _ HC) Hn H6) as (G1 & G2 & G3).
  pose proof (on_new_tasks_hq _ _ _ H6) as Q6.
  assert (Hs' : K s' = K s6 /\ hq_of s' = hq_of s6).
  { unfold submit_ok_resp in H. apply bind_ok in H. destruct H as (jx & _ & H). inversion H; subst. split; reflexivity. }
  destruct Hs' as [Ks' Qs'].
  constructor.
  - eapply CS_keys; [exact Ks' | exact G1].
  - rewrite Ks'. exact G2.
  - intros x. rewrite Ks', G3.
    change (present (K s4) x \/ In x (map t_id tasks) <-> active s' x).
    rewrite (active_same s6 s') by (apply jt_same; exact Qs').
    rewrite (active_same (hq_set_job s4 j') s6) by (apply jt_same; exact Q6).
    rewrite (cb_b _ HC), Hids. unfold active. rewrite jt_set_job, I1, Eid.
    destruct (N.eqb (fst x) jid) eqn:E1.
    + apply N.eqb_eq in E1. rewrite E1, Ej. split.
      * intros [(l & Hl & Hact)|Hin].
        -- inversion Hl; subst l. eexists. split; [reflexivity|]. rewrite I2.
           destruct (n_mem (snd x) ids); [left; reflexivity | exact Hact].
        -- apply in_map_iff in Hin. destruct Hin as (i & Ex & Hi). subst x. cbn.
           eexists. split; [reflexivity|]. rewrite I2. apply n_mem_In in Hi. rewrite Hi. left; reflexivity.
      * intros (l & Hl & Hact). inversion Hl; subst l. rewrite I2 in Hact.
        destruct (n_mem (snd x) ids) eqn:Em.
        -- right. apply n_mem_In in Em. apply in_map_iff. exists (snd x). split; [destruct x; cbn in *; subst; reflexivity | exact Em].
        -- left. eauto.
    + split; [intros [Ha'|Hin]; [exact Ha'|] | intros Ha'; left; exact Ha'].
      apply in_map_iff in Hin. destruct Hin as (i & Ex & _). subst x. cbn in E1. rewrite N.eqb_refl in E1. discriminate.
Qed.

Lemma fresh_absent s : fresh s -> jt s (cnt_of s) = None.
Proof.
  intros F. unfold jt. destruct (find_job (h_jobs (hq_of s)) (cnt_of s)) as [j|] eqn:E; [|reflexivity].
  pose proof (F _ (find_job_in _ _ _ E)) as Hlt. rewrite (find_job_id _ _ _ E) in Hlt. lia.
Qed.

Lemma new_job_active s jid mf open :
  jt s jid = None ->
  forall x, active (hq_with s (set_job (hq_jobs s) (mkJob jid open [] 0 0 0 0 0 false mf)) (hq_counter s)) x <-> active s x.
Proof.
  intros Hn x. unfold active.
  assert (E : forall id, jt (hq_with s (set_job (hq_jobs s) (mkJob jid open [] 0 0 0 0 0 false mf)) (hq_counter s)) id
              = if N.eqb id jid then Some [] else jt s id).
  { intros id. unfold jt, hq_of, hq_with, hq_jobs. cbn. rewrite find_job_set. cbn. destruct (N.eqb id jid); reflexivity. }
  rewrite E. destruct (N.eqb (fst x) jid) eqn:E1; [|reflexivity].
  apply N.eqb_eq in E1. rewrite E1, Hn. split; [intros (l & Hl & [Ha|Ha]); inversion Hl; subst; discriminate | intros (l & Hl & _); discriminate].
Qed.

Lemma get_or_create_rq_K s r : K (fst (get_or_create_rq s r)) = K s /\ hq_of (fst (get_or_create_rq s r)) = hq_of s.
Proof. unfold get_or_create_rq. destruct (rq_index _ r 0); split; reflexivity. Qed.

Lemma take_n_all {A} (l : list A) : forall n, (length l <= n)%nat -> fst (take_n n l) = l.
Proof.
  induction l as [|h t IH]; intros n Hn; [destruct n; reflexivity|].
  destruct n as [|k]; [cbn in Hn; lia|]. cbn [take_n]. destruct (take_n k t) as [a b] eqn:E. cbn.
  f_equal. specialize (IH k). rewrite E in IH. apply IH. cbn in Hn. lia.
Qed.

Lemma range_from_length n : forall start, length (range_from start n) = n.
Proof. induction n as [|k IH]; intros start; cbn [range_from length]; [reflexivity | rewrite IH; reflexivity]. Qed.

(** No more explicit ids than entries; [Sys.step] itself refuses unequal numbers (F26). *)
Definition op_wf (o : op) : Prop :=
  match o with
  | OpSubmit _ ids (Some n) _ _ _ _ _ => (length ids <= N.to_nat n)%nat
  | _ => True
  end.

Lemma CB_hq_only s s' : core_of s' = core_of s -> (forall x, active s' x <-> active s x) -> CB s -> CB s'.
Proof. intros E A. apply CB_frame; [unfold K; rewrite E; reflexivity | exact A]. Qed.

(** The state in which the tail runs: a NEW job has no tasks and its id was unused. *)
Lemma submit_job_CB s jid is_new n mf : fresh s -> CB s -> submit_target s jid is_new -> CB (submit_job s jid is_new n mf).
Proof.
  intros F HC Ht. unfold submit_job. destruct is_new; [|eapply CB_same; [| |exact HC]; reflexivity].
  unfold submit_target in Ht. subst jid. eapply (CB_hq_only s); [reflexivity | | exact HC]. intros x.
  rewrite (new_job_active (emit (hq_with s (hq_jobs s) (hq_counter s + 1)) _) (hq_counter s) mf false).
  - apply active_same. intros id. reflexivity.
  - change (jt s (cnt_of s) = None). apply fresh_absent. exact F.
Qed.

Lemma handle_submit_array_CB s jobsel ids entries rq prio cl tlim mf s' :
  fresh s -> CB s -> (match entries with Some n => (length ids <= N.to_nat n)%nat | None => True end) ->
  handle_submit_array s jobsel ids entries rq prio cl tlim mf = Ok s' -> CB s'.
Proof.
  intros F HC Hwf H.
  destruct (handle_submit_array_spec _ _ _ _ _ _ _ _ _ _ H) as [(c & a & ->)|(jid & is_new & ids' & s4 & rqi & Ht & Hids & Erq & Hc')];
    [eapply CB_same; [| |exact HC]; reflexivity|].
  pose proof (get_or_create_rq_K (submit_job s jid is_new (N.of_nat (length ids')) mf) rq) as [K4 Q4].
  rewrite Erq in K4, Q4. cbn [fst] in K4, Q4.
  assert (HC4 : CB s4) by (eapply CB_same; [exact K4 | exact Q4 | apply submit_job_CB; assumption]).
  eapply (submit_tail_CB s4 jid ids'); [exact HC4 | | | exact Hc'].
  - rewrite map_map. cbn. destruct entries as [n|]; [|reflexivity]. rewrite take_n_all; [reflexivity|].
    destruct Hids as [->|[_ ->]]; [exact Hwf | apply le_n].
  - apply Forall_forall. intros t Hin. apply in_map_iff in Hin. destruct Hin as (i & <- & _). split; [reflexivity | intros d []].
Qed.

Lemma dedup_sorted_fst l : forall acc j x, (forall y, In y acc -> fst y = j) -> In x (dedup_sorted l acc j) -> fst x = j.
Proof.
  induction l as [|h t IH]; cbn [dedup_sorted]; intros acc j x Ha Hx; [apply Ha; exact Hx|].
  eapply IH; [|exact Hx]. intros y Hy. destruct (tid_insert_in _ _ _ Hy) as [->|Hy']; [reflexivity | apply Ha; exact Hy'].
Qed.

Lemma graph_tasks_spec jid rqis l : forall tasks, graph_tasks jid rqis l = Ok tasks ->
  map t_id tasks = map (fun i => (jid, i)) (map gt_id l) /\ Forall new_ok tasks.
Proof.
  induction l as [|g r IH]; cbn [graph_tasks]; intros tasks H; [inversion H; subst; split; [reflexivity | constructor]|].
  destruct (nth_error rqis (N.to_nat (gt_rq g))) as [rqi|]; [|discriminate].
  apply bind_ok in H. destruct H as (rest & Hr & H). inversion H; subst. destruct (IH _ Hr) as [I1 I2]. split.
  - cbn [map]. rewrite I1. reflexivity.
  - constructor; [|exact I2]. split; [reflexivity|]. intros d Hd. cbn in Hd |- *.
    eapply dedup_sorted_fst; [|exact Hd]. intros y [].
Qed.

Lemma fold_rqs_K rqs : forall s l s4 rqis,
  fold_left (fun acc r => let '(s, l) := acc in let '(s', i) := get_or_create_rq s r in (s', l ++ [i])) rqs (s, l) = (s4, rqis) ->
  K s4 = K s /\ hq_of s4 = hq_of s.
Proof.
  induction rqs as [|r rest IH]; cbn [fold_left]; intros s l s4 rqis H; [inversion H; split; reflexivity|].
  destruct (get_or_create_rq s r) as [s1 i] eqn:E. destruct (IH _ _ _ _ H) as [I1 I2].
  pose proof (get_or_create_rq_K s r) as [A1 A2]. rewrite E in A1, A2. cbn [fst] in A1, A2.
  split; congruence.
Qed.

Lemma handle_submit_graph_CB s jobsel rqs ts mf s' :
  fresh s -> CB s -> handle_submit_graph s jobsel rqs ts mf = Ok s' -> CB s'.
Proof.
  intros F HC H.
  destruct (handle_submit_graph_spec _ _ _ _ _ _ H) as [(r & ->)|(jid & is_new & s4 & rqis & tasks & Ht & Erq & Hg & Hc')];
    [eapply CB_same; [| |exact HC]; reflexivity|].
  destruct (fold_rqs_K _ _ _ _ _ Erq) as [K4 Q4].
  assert (HC4 : CB s4) by (eapply CB_same; [exact K4 | exact Q4 | apply submit_job_CB; assumption]).
  destruct (graph_tasks_spec _ _ _ _ Hg) as [G1 G2].
  exact (submit_tail_CB s4 jid (map gt_id ts) tasks s' HC4 G1 G2 Hc').
Qed.

Lemma handle_open_CB s mf s' : fresh s -> CB s -> handle_open s mf = Ok s' -> CB s'.
Proof.
  intros F HC H. unfold handle_open in H. inversion H; subst.
  eapply (CB_hq_only s); [reflexivity | | exact HC]. intros x.
  rewrite (active_same (hq_with s (set_job (hq_jobs s) (mkJob (hq_counter s) true [] 0 0 0 0 0 false mf)) (hq_counter s + 1))) by (intros; reflexivity).
  unfold active.
  assert (E : forall id, jt (hq_with s (set_job (hq_jobs s) (mkJob (hq_counter s) true [] 0 0 0 0 0 false mf)) (hq_counter s + 1)) id
              = if N.eqb id (hq_counter s) then Some [] else jt s id).
  { intros id. unfold jt, hq_of, hq_with, hq_jobs. cbn. rewrite find_job_set. cbn. destruct (N.eqb id (hq_counter s)); reflexivity. }
  rewrite E. destruct (N.eqb (fst x) (hq_counter s)) eqn:E1; [|reflexivity].
  apply N.eqb_eq in E1. rewrite E1. change (jt s (hq_counter s)) with (jt s (cnt_of s)). rewrite (fresh_absent _ F).
  split; [intros (l & Hl & [Ha|Ha]); inversion Hl; subst; discriminate | intros (l & Hl & _); discriminate].
Qed.

Lemma handle_close_CB s jid s' : CB s -> handle_close s jid = Ok s' -> CB s'.
Proof.
  intros HC H. unfold handle_close in H.
  destruct (find_job (hq_jobs s) jid) as [j|] eqn:Ej; [|inversion H; subst; eapply CB_same; [| |exact HC]; reflexivity].
  destruct (j_open j); [|inversion H; subst; eapply CB_same; [| |exact HC]; reflexivity].
  apply bind_ok in H. destruct H as (s1 & H1 & H). inversion H; subst.
  destruct (check_termination_jt _ _ _ H1) as [C1 J1].
  eapply (CB_hq_only s); [exact C1 | | exact HC].
  apply active_same. intros id. rewrite jt_emit, J1, jt_emit, jt_set_job. cbn [j_id j_tasks].
  destruct (N.eqb id (j_id j)) eqn:E; [|reflexivity]. apply N.eqb_eq in E. subst id.
  unfold jt, hq_of. unfold hq_jobs in Ej. rewrite (find_job_id _ _ _ Ej), Ej. reflexivity.
Qed.

Lemma cnt_zero_find l v k : cnt l v = 0 -> jt_find l k <> Some v.
Proof.
  intros Hc Hf. apply jt_find_in in Hf. revert Hc Hf. clear. induction l as [|[k0 v0] r IH]; [intros _ []|].
  cbn [cnt snd]. intros Hc [Heq|Hin].
  - inversion Heq; subst. assert (jst_eqb v v = true) by (destruct v; reflexivity).
    match type of Hc with (if ?b then _ else _) + _ = 0 => replace b with true in Hc end. lia.
  - apply IH; [|exact Hin]. destruct (jst_eqb v0 v); lia.
Qed.

Lemma handle_forget_CB s jid s' : HOK (hq_of s) -> CB s -> handle_forget s jid = Ok s' -> CB s'.
Proof.
  intros Hok HC H. unfold handle_forget in H.
  destruct (find_job (hq_jobs s) jid) as [j|] eqn:Ej; [|inversion H; subst; eapply CB_same; [| |exact HC]; reflexivity].
  pose proof (Hok _ (find_job_in _ _ _ Ej)) as Hj.
  rewrite (has_no_active_ok _ Hj) in H. cbn [bind] in H.
  destruct (negb (j_open j) && _) eqn:Eb; [|inversion H; subst; eapply CB_same; [| |exact HC]; reflexivity].
  inversion H; subst. apply andb_true_iff in Eb. destruct Eb as [_ Eb]. apply andb_true_iff in Eb. destruct Eb as [Er Ew].
  apply N.eqb_eq in Er, Ew.
  eapply (CB_hq_only s); [reflexivity | | exact HC]. intros x.
  rewrite (active_same (hq_with s (del_job (hq_jobs s) jid) (hq_counter s))) by (intros; reflexivity).
  unfold active.
  assert (E : forall id, jt (hq_with s (del_job (hq_jobs s) jid) (hq_counter s)) id = if N.eqb id jid then None else jt s id).
  { intros id. unfold jt, hq_of, hq_with, hq_jobs. cbn. destruct (N.eqb id jid) eqn:E.
    - apply N.eqb_eq in E. subst id. rewrite find_job_del_same. reflexivity.
    - apply N.eqb_neq in E. rewrite find_job_del by exact E. reflexivity. }
  rewrite E. destruct (N.eqb (fst x) jid) eqn:E1; [|reflexivity].
  apply N.eqb_eq in E1. split; [intros (l & Hl & _); discriminate|].
  intros (l & Hl & Ha). exfalso. unfold jt, hq_of in Hl. unfold hq_jobs in Ej. rewrite E1, Ej in Hl. inversion Hl; subst l.
  destruct Ha as [Ha|Ha]; [exact (cnt_zero_find _ _ _ Ew Ha) | exact (cnt_zero_find _ _ _ Er Ha)].
Qed.

Theorem step_CB s o s' outs :
  HOK (s_hq s) -> fresh (s, []) -> op_wf o -> CB (s, []) -> step s o = Ok (s', outs) -> CB (s', outs).
Proof.
  intros Hok F Hwf HC H. revert Hok F HC.
  refine (step_walk (fun x x' => HOK (hq_of x) -> fresh x -> CB x -> CB x') op_wf _ _ _ _ _ _ _ _ _ _ _ _ _ _ _ _ s o s' outs Hwf H);
    try (intros; eapply CB_same; [| |eassumption]; reflexivity).
  - intros s0 rs g s1 _ X _ _ HC. eapply CB_same; [| eapply on_new_worker_same; exact X | exact HC].
    unfold on_new_worker in X. inversion X; subst. reflexivity.
  - intros s0 w r a p t pw s1 _ _ X Hok _ HC. exact (on_remove_worker_CB _ _ _ _ _ _ _ Hok HC X).
  - intros s0 job ids entries rq prio cl tlim mf s1 Hw X _ F HC.
    eapply handle_submit_array_CB; [exact F | exact HC | | exact X]. destruct entries; exact Hw.
  - intros s0 job rqs ts mf s1 _ X _ F HC. exact (handle_submit_graph_CB _ _ _ _ _ _ F HC X).
  - intros s0 mf s1 _ X _ F HC. exact (handle_open_CB _ _ _ F HC X).
  - intros s0 j s1 _ X _ _ HC. exact (handle_close_CB _ _ _ HC X).
  - intros s0 j s1 _ X Hok _ HC. exact (handle_cancel_CB _ _ _ Hok HC X).
  - intros s0 j s1 _ X Hok _ HC. exact (handle_forget_CB _ _ _ Hok HC X).
  - intros s0 w p m rest s1 _ _ _ X Hok _ HC.
    assert (HC1 : CB (with_procs s0 (set_proc (s_procs s0) (wp_up p rest)), [OUp w m])) by (eapply CB_same; [| |exact HC]; reflexivity).
    destruct m.
    + eapply on_task_update_CB; [|exact HC1|exact X]. exact Hok.
    + eapply CB_same; [eapply on_retract_response_K; [exact (cb_s _ HC1) | exact X] | eapply on_retract_response_same; exact X | exact HC1].
  - intros s0 sol s1 _ _ X _ _ HC.
    eapply CB_same; [eapply run_scheduling_K; [exact (cb_s _ HC) | exact X] | eapply run_scheduling_same; exact X | exact HC].
Qed.

Lemma CB_outs s o1 o2 : CB (s, o1) -> CB (s, o2).
Proof. intros [A B C]. constructor; [exact A | exact B | exact C]. Qed.

Theorem run_CB ops : forall s s' outs,
  HOK (s_hq s) -> fresh (s, []) -> Forall op_wf ops -> CB (s, []) -> run s ops = Ok (s', outs) -> CB (s', outs).
Proof.
  induction ops as [|o r IH]; cbn [run]; intros s s' outs Hok F Hwf HC H; [inversion H; subst; exact HC|].
  inversion Hwf as [|? ? Hw1 Hw2]; subst.
  apply bind_ok in H. destruct H as ([s1 o1] & H1 & H). apply bind_ok in H. destruct H as ([s2 o2] & H2 & H). inversion H; subst.
  pose proof (step_CB _ _ _ _ Hok F Hw1 HC H1) as HC1.
  pose proof (step_hq_ok _ _ _ _ Hok H1) as Hok1.
  pose proof (G_step _ _ _ _ F H1) as G1.
  assert (F1 : fresh (s1, [])) by (apply (fresh_outs s1 o1); apply (g_fresh _ _ G1); exact F).
  eapply CB_outs. eapply IH; [exact Hok1 | exact F1 | exact Hw2 | eapply CB_outs; exact HC1 | exact H2].
Qed.

Lemma init_facts r m : HOK (s_hq (init_sys r m)) /\ fresh (init_sys r m, []) /\ CB (init_sys r m, []).
Proof.
  split; [intros j []|]. split; [intros j []|].
  constructor; [constructor | intros id cs x [] | ]. intros x. split; [intros [] | intros (l & Hl & _); discriminate].
Qed.

(** C02, second sentence, for EVERY history of the system model: the tasks the scheduler knows
    are exactly the tasks the job layer shows as waiting or running - no phantom, no orphan. *)
Theorem no_phantom_no_orphan ops reserve maxfill s outs :
  Forall op_wf ops -> run (init_sys reserve maxfill) ops = Ok (s, outs) ->
  forall t, In t (map t_id (c_tasks (s_core s))) <->
            exists j, find_job (h_jobs (s_hq s)) (fst t) = Some j /\
                      (jt_find (j_tasks j) (snd t) = Some JW \/ jt_find (j_tasks j) (snd t) = Some JR).
Proof.
  intros Hwf H t.
  assert (HC0 : CB (init_sys reserve maxfill, [])).
  { constructor; [constructor | intros id cs x [] | ]. intros x. split; [intros [] | intros (l & Hl & _); discriminate]. }
  assert (Hok0 : HOK (s_hq (init_sys reserve maxfill))) by (intros j []).
  assert (F0 : fresh (init_sys reserve maxfill, [])) by (intros j []).
  pose proof (run_CB _ _ _ _ Hok0 F0 Hwf HC0 H) as HC.
  rewrite <- (present_ids (s_core s)). etransitivity; [exact (cb_b _ HC t)|].
  unfold active, jt, hq_of. cbn [fst]. split.
  - intros (l & Hl & Ha). destruct (find_job (h_jobs (s_hq s)) (fst t)) as [j|]; [|discriminate]. inversion Hl; subst.
    exists j. split; [reflexivity | exact Ha].
  - intros (j & Hj & Ha). rewrite Hj. exists (j_tasks j). split; [reflexivity | exact Ha].
Qed.
