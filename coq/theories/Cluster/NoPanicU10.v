(** Protocol invariant, part 10: [task_finished] and [task_failed] as transitions of [SP]. *)
From HQ Require Import Base.Prelude Cluster.Types Cluster.Core Cluster.Reactor Cluster.Worker Cluster.Server Cluster.Sys Cluster.ProofsJob Cluster.ProofsMore Cluster.ProofsTerminal Cluster.ProofsStep Cluster.BijBase Cluster.BijCore Cluster.BijHq Cluster.BijSt Cluster.BijReact Cluster.NoPanicU0 Cluster.NoPanicU1 Cluster.NoPanicU2 Cluster.NoPanicU6 Cluster.NoPanicU7 Cluster.NoPanicU8 Cluster.NoPanicU9.
From HQ Require Import Cluster.ModelFacts.
From HQ Require Import Cluster.ReactSplit.
From Coq Require Import ZArith Lia Sorting.Sorted.
Local Open Scope N_scope.

Lemma check_termination_frame s jid s' : check_termination s jid = Ok s' -> core_of s' = core_of s /\ s_procs (fst s') = s_procs (fst s).
Proof.
  unfold check_termination. intros H. apply bind_ok in H. destruct H as (j & _ & H). apply bind_ok in H. destruct H as (na & _ & H).
  destruct na; [destruct (j_open j)|]; inversion H; subst; split; reflexivity.
Qed.
Lemma process_task_finished_frame s t s' : process_task_finished s t = Ok s' -> core_of s' = core_of s /\ s_procs (fst s') = s_procs (fst s).
Proof.
  unfold process_task_finished. intros H. apply bind_ok in H. destruct H as (j & _ & H).
  destruct (jt_find (j_tasks j) (snd t)) as [[| | | | |]|]; try discriminate. apply bind_ok in H. destruct H as (nr & _ & H).
  destruct (check_termination_frame _ _ _ H) as [A B]. split; [rewrite A | rewrite B]; reflexivity.
Qed.
Lemma abort_tasks_frame s jid ids s' : abort_tasks s jid ids = Ok s' -> core_of s' = core_of s /\ s_procs (fst s') = s_procs (fst s).
Proof.
  unfold abort_tasks. destruct ids; [intros H; inversion H; split; reflexivity|]. intros H.
  apply bind_ok in H. destruct H as (j & _ & H). apply bind_ok in H. destruct H as (j1 & _ & H).
  destruct (check_termination_frame _ _ _ H) as [A B]. split; [rewrite A | rewrite B]; reflexivity.
Qed.
Lemma process_task_failed_frame s t ab k s' ids : process_task_failed s t ab k = Ok (s', ids) -> core_of s' = core_of s /\ s_procs (fst s') = s_procs (fst s).
Proof.
  unfold process_task_failed. intros H.
  apply bind_ok in H. destruct H as (s1 & H1 & H). apply bind_ok in H. destruct H as (j & _ & H).
  apply bind_ok in H. destruct H as (j1 & _ & H). apply bind_ok in H. destruct H as (s2 & H2 & H).
  apply bind_ok in H. destruct H as (j2 & _ & H).
  destruct (abort_tasks_frame _ _ _ _ H1) as [A1 B1]. destruct (check_termination_frame _ _ _ H2) as [A2 B2].
  assert (E2 : core_of s2 = core_of s /\ s_procs (fst s2) = s_procs (fst s)) by (split; [rewrite A2 | rewrite B2]; assumption).
  destruct (j_maxfails j2) as [mf|]; [|inversion H; subst; exact E2]. destruct (N.ltb mf (j_nfail j2)); [|inversion H; subst; exact E2].
  apply bind_ok in H. destruct H as (s3 & H3 & H). inversion H; subst. destruct (abort_tasks_frame _ _ _ _ H3) as [A3 B3].
  destruct E2 as [C D]. split; [rewrite A3 | rewrite B3]; assumption.
Qed.

Lemma SP_hq_chg X (P : tid -> Prop) s pum pd s' :
  SP X s pum pd -> core_of s' = core_of s -> s_procs (fst s') = s_procs (fst s) -> hq_chg P (hq_of s) (hq_of s') ->
  (forall y t, find_task (c_tasks (core_of s)) y = Some t -> X y = false -> ~ P y) ->
  SP X s' pum pd.
Proof.
  intros HS Ec Ep Hc HP.
  apply (SP_ext _ (mkSys (core_of s) (hq_of s') (s_procs (fst s)), snd s') s'); [|rewrite Ec; reflexivity | reflexivity | rewrite Ep; reflexivity].
  apply SP_hq; [exact HS | | intros y; apply (hq_chg_seen _ _ _ _ Hc)].
  intros y t Hy HX. destruct Hc as [_ Hc]. apply (proj1 (Hc y)). eapply HP; eassumption.
Qed.

Lemma SP_hide_head s w u r id :
  SP x0 s (pum_us w (u :: r)) [] -> (forall y, y <> id -> uitem_of y u = []) -> SP (xadd x0 id) s (pum_us w r) [].
Proof.
  intros HS Hu. apply (SP_hide_pum x0 s (pum_us w (u :: r)) [] _ id HS).
  - intros w' y Hy. rewrite pum_us_items, (Hu y Hy). destruct (N.eqb w' w); reflexivity.
  - intros w' y. apply pum_us_tids.
  - intros w'. unfold pum_us. destruct (N.eqb w' w); [discriminate | auto].
Qed.

Lemma view_VR st w jr rv : view_of st w jr = VR rv -> st = Running w rv.
Proof.
  destruct st as [n|w1 rv1|w1|w1|w1 rv1|[|w1 ws]|]; cbn [view_of]; try discriminate;
    destruct (N.eqb w1 w) eqn:E; try discriminate. intros H; injection H as <-. apply N.eqb_eq in E. subst. reflexivity.
Qed.
Lemma view_VP st w jr : view_of st w jr = VP -> st = Prefilled w.
Proof.
  destruct st as [n|w1 rv1|w1|w1|w1 rv1|[|w1 ws]|]; cbn [view_of]; try discriminate;
    destruct (N.eqb w1 w) eqn:E; try discriminate. intros _. apply N.eqb_eq in E. subst. reflexivity.
Qed.
Lemma view_VM st w jr b : view_of st w jr = VM b -> jr = b /\ exists ws, st = RunningMN (w :: ws).
Proof.
  destruct st as [n|w1 rv1|w1|w1|w1 rv1|[|w1 ws]|]; cbn [view_of]; try discriminate;
    destruct (N.eqb w1 w) eqn:E; try discriminate. intros H; injection H as <-. apply N.eqb_eq in E. subst. eauto.
Qed.

(** A worker reports the end of a task only while the server sees the task running on it, and the
    job layer shows it Running. *)
Lemma finished_head s w id r t :
  SP x0 s (pum_us w (UFinished id :: r)) [] -> find_task (c_tasks (core_of s)) id = Some t ->
  job_running (hq_of s) id = true /\ ((exists rv, t_state t = Running w rv) \/ exists ws, t_state t = RunningMN (w :: ws)).
Proof.
  intros HS Ef. destruct (pum_us_proc _ _ _ _ _ HS) as (p & Hp).
  pose proof (head_item _ _ _ _ _ _ _ _ _ HS Ef eq_refl Hp) as Hl. cbn [uitem_of] in Hl. rewrite sel_same in Hl. cbn [app] in Hl.
  destruct (LS_fin _ _ _ _ Hl) as [(rv & Ev)|Ev].
  - apply view_VR in Ev. split; [|left; eauto].
    pose proof (sp_jr _ _ _ _ HS _ _ Ef eq_refl) as J. unfold jr_ok in J. rewrite Ev, (proj2 (find_task_some _ _ _ Ef)) in J. exact J.
  - apply view_VM in Ev. destruct Ev as [Ej Ev]. split; [exact Ej | right; exact Ev].
Qed.

(** A worker rejects a task only while the server has it assigned to it, with the same variant. *)
Lemma reject_head X s w id rv0 r pd t :
  SP X s (pum_us w (UReject id rv0 :: r)) pd -> find_task (c_tasks (core_of s)) id = Some t -> X id = false ->
  exists rv, rv0 = Some rv /\ t_state t = Assigned w rv.
Proof.
  intros HS Ef HX. destruct (pum_us_proc _ _ _ _ _ HS) as (p & Hp).
  pose proof (head_item _ _ _ _ _ _ _ _ _ HS Ef HX Hp) as Hl. cbn [uitem_of] in Hl. rewrite sel_same in Hl. cbn [app] in Hl.
  destruct (LS_rej _ _ _ _ _ Hl) as (rv & Ev & E & _). exists rv. split; [exact E | eapply view_VA; exact Ev].
Qed.

Lemma task_finished_SP s w id r s' b0 :
  SP x0 s (pum_us w (UFinished id :: r)) [] -> task_finished s w id = Ok (s', b0) -> SP x0 s' (pum_us w r) [].
Proof.
  intros HS H. unfold task_finished in H. cbv zeta in H.
  destruct (find_task (c_tasks (core_of s)) id) as [t|] eqn:Ef.
  2:{ inversion H; subst. eapply (SP_drop_absent w _ r s' id); [exact HS | | exact Ef]. intros y Hy. cbn [uitem_of]. apply sel_other. congruence. }
  destruct (find_task_some _ _ _ Ef) as [_ Eid]. destruct (finished_head _ _ _ _ _ HS Ef) as [_ Hst].
  apply bind_ok in H. destruct H as (rq & _ & H). apply bind_ok in H. destruct H as (c1 & H1 & H).
  apply bind_ok in H. destruct H as (s1 & Hpf & H). apply bind_ok in H. destruct H as ([c3 retracted] & Hwk & H).
  apply bind_ok in H. destruct H as (s2 & Hpr & H). apply bind_ok in H. destruct H as ([c4 stt] & Hrm & H).
  destruct stt; try discriminate. inversion H; subst s' b0. clear H.
  set (X1 := xadd x0 id).
  assert (S0 : SP X1 s (pum_us w r) []).
  { apply (SP_hide_head s w (UFinished id) r id HS). intros y Hy. cbn [uitem_of]. apply sel_other. congruence. }
  (* the task leaves the sets of the worker(s) it runs on; the task map is not touched *)
  assert (F1 : CF X1 (core_of s) c1 /\ c_tasks c1 = c_tasks (core_of s)).
  { destruct Hst as [(rv & Est)|(ws & Est)]; rewrite Est in H1; cbn [negb] in H1; rewrite N.eqb_refl in H1.
    - cbn [negb] in H1. apply bind_ok in H1. destruct H1 as (wk & _ & H1). apply bind_ok in H1. destruct H1 as (wk' & _ & H1).
      injection H1 as <-. split; [apply CF_tasks_same; auto | reflexivity].
    - split; [eapply reset_mn_workers_CF; exact H1 | exact (BijReact.reset_mn_workers_tasks _ _ _ _ H1)]. }
  destruct F1 as [F1 Et1].
  set (c2 := upd_task c1 (with_state t Finished)) in *.
  assert (F2 : CF X1 (core_of s) c2).
  { eapply CF_trans; [exact F1|]. apply (CF_upd_task X1 c1 t); cbn [with_state t_id]; rewrite Eid; [rewrite Et1; exact Ef|].
    unfold X1, xadd. rewrite tid_eqb_refl. discriminate. }
  assert (S2 : SP X1 (st_core s c2) (pum_us w r) []) by (apply (SP_CF X1 X1); [exact S0 | exact F2 | auto]).
  destruct (process_task_finished_frame _ _ _ Hpf) as [Ec1 Ep1]. destruct (process_task_finished_chg _ _ _ Hpf) as [_ Hchg].
  assert (S3 : SP X1 s1 (pum_us w r) []).
  { apply (SP_hq_chg X1 (eq id) (st_core s c2) _ _ s1 S2 Ec1 Ep1 Hchg). intros y ty _ HX <-. unfold X1, xadd in HX. rewrite tid_eqb_refl in HX. discriminate. }
  assert (S4 : SP X1 (st_core s1 c3) (pum_us w r) []) by (apply (SP_CF X1 X1); [exact S3 | eapply wake_consumers_CF; exact Hwk | auto]).
  pose proof (process_retracted_SP _ _ _ _ _ S4 Hpr) as S5.
  destruct (remove_task_CF X1 _ _ _ _ (sp_cs _ _ _ _ S5) Hrm) as (F6 & N6 & _).
  apply (SP_show_absent x0 _ _ _ id); [|reflexivity | exact N6].
  apply (SP_CF X1 X1); [exact S5 | exact F6 | auto].
Qed.

Lemma SP_more_hidden X X' s pum pd : SP X s pum pd -> (forall y, X' y = false -> X y = false) -> SP X' s pum pd.
Proof.
  intros HS HX. apply (SP_ext _ (st_core s (core_of s)) s); [|reflexivity|reflexivity|reflexivity].
  apply (SP_CF X X'); [exact HS | apply CF_refl | exact HX].
Qed.

Lemma SP_unhide_absent X s pum pd : SP X s pum pd -> (forall y, X y = true -> find_task (c_tasks (core_of s)) y = None) -> SP x0 s pum pd.
Proof.
  intros HS Hab.
  apply (SP_ext _ (mkSys (core_of s) (hq_of s) (s_procs (fst s)), snd s) s); [|reflexivity|reflexivity|reflexivity].
  apply (SP_gen X X x0 s pum pd (core_of s) (hq_of s) (snd s) pum pd HS (sp_cs _ _ _ _ HS) eq_refl (sp_rvr _ _ _ _ HS)).
  - intros y t' E Hy _. exists t'. repeat split; assumption.
  - intros w y _. split; reflexivity.
  - auto.
  - intros y t' Hy. congruence.
  - intros w p y Hp Hy. eapply (sp_seen _ _ _ _ HS); [exact Hp | right; exact Hy].
  - intros w p Hp. split; [exact (sp_down _ _ _ _ HS _ _ Hp) | reflexivity].
  - auto.
  - intros y t' E Hy _. rewrite (Hab y E) in Hy. discriminate.
Qed.

Lemma sel_flat_notin {A B} (g : B -> tid) (f : B -> A) y l : ~ In y (map g l) -> flat_map (fun x => sel (g x) y (f x)) l = [].
Proof.
  induction l as [|h t IH]; [reflexivity|]. cbn [flat_map map In]. intros Hn. rewrite sel_other by (intros E; apply Hn; auto). apply IH. tauto.
Qed.
Lemma ditems_notin y ms : ~ In y (flat_map dmsg_tids ms) -> ditems y ms = [].
Proof.
  induction ms as [|m r IH]; [reflexivity|]. cbn [flat_map]. rewrite in_app_iff. intros Hn. rewrite ditems_cons, IH by tauto. rewrite app_nil_r.
  assert (Hm : ~ In y (dmsg_tids m)) by tauto.
  destruct m as [ts|ids|ids| | | |]; cbn [ditems_msg dmsg_tids] in *; try reflexivity.
  - apply sel_flat_notin. exact Hm.
  - apply (sel_flat_notin (fun x => x)). rewrite map_id. exact Hm.
  - apply (sel_flat_notin (fun x => x)). rewrite map_id. exact Hm.
Qed.

Lemma SP_add_pending X s pum ext :
  SP X s pum [] ->
  (forall w m, In m (msgs_for w ext) -> plain m) ->
  (forall w y, In y (flat_map dmsg_tids (msgs_for w ext)) -> find_task (c_tasks (core_of s)) y = None /\ seen (hq_of s) y = true) ->
  SP X s pum ext.
Proof.
  intros [H9 Hcs Hact H1 Hd Ht H3 H4 Hpres Hpum H5 H6 H7 R1 R2] Hpl Hab.
  constructor; try assumption.
  - intros w p x t Hp Hx HX. specialize (H1 w p x t Hp Hx HX). rewrite msgs_for_nil, app_nil_r in H1.
    rewrite ditems_app, (ditems_notin x (msgs_for w ext)), app_nil_r; [exact H1|]. intros Hin. destruct (Hab _ _ Hin) as [E _]. congruence.
  - intros w p Hp. specialize (Hd _ _ Hp). rewrite msgs_for_nil, app_nil_r in Hd. rewrite (down_ok_plain _ _ (Hpl w)). exact Hd.
  - intros w p Hp. specialize (Ht _ _ Hp). rewrite msgs_for_nil, app_nil_r in Ht. rewrite newrq_app, (newrq_plain _ (Hpl w)), app_nil_r. exact Ht.
  - intros w p x Hp [Hx|[Hx|Hx]]; [eapply H4; [exact Hp | left; exact Hx] | eapply H4; [exact Hp | right; left; exact Hx] | exact (proj2 (Hab _ _ Hx))].
Qed.

Definition gids (ru : list (wid * list tid)) : list tid := flat_map snd ru.
Lemma group_add_gids w (x : tid) ru y : In y (gids (group_add w x ru)) -> y = x \/ In y (gids ru).
Proof.
  unfold gids. induction ru as [|[k v] r IH]; cbn [group_add flat_map snd].
  - rewrite app_nil_r. intros [H|[]]; auto.
  - destruct (N.eqb k w); cbn [flat_map snd]; rewrite !in_app_iff.
    + cbn [In]. intros [[H|[H|[]]]|H]; auto.
    + intros [H|H]; [auto|]. destruct (IH H); auto.
Qed.

(** One present task of the list: its consumers and itself are noted for removal, it leaves the
    sets of its worker(s) (a frame of the core that keeps the task map) and joins the group of the
    worker that has to be told, if any. *)
Lemma cancel_release_head X s id r tu ru t res : find_task (c_tasks (core_of s)) id = Some t ->
  cancel_release s (id :: r) tu ru = Ok res ->
  exists c1 csm ru1, cancel_release (st_core s c1) r (tid_insert_all csm (tid_insert id tu)) ru1 = Ok res /\
    CF X (core_of s) c1 /\ c_tasks c1 = c_tasks (core_of s) /\ (forall y, In y (gids ru1) -> y = id \/ In y (gids ru)).
Proof.
  intros Ef H. cbn [cancel_release] in H. rewrite Ef in H.
  apply bind_ok in H. destruct H as (csm & _ & H). apply bind_ok in H. destruct H as (rq & _ & H).
  assert (Hadd : forall w0 y, In y (gids (group_add w0 id ru)) -> y = id \/ In y (gids ru)) by (intros w0 y; apply group_add_gids).
  destruct (t_state t) as [n|w1 rv1|w1|w1|w1 rv1|ws|].
  - eexists _, csm, ru. split; [exact H|]. split; [apply CF_tasks_same; auto|]. split; [reflexivity | auto].
  - apply bind_ok in H. destruct H as (wk & _ & H). apply bind_ok in H. destruct H as (wk' & _ & H).
    eexists _, csm, _. split; [exact H|]. split; [apply CF_tasks_same; auto|]. split; [reflexivity | apply Hadd].
  - apply bind_ok in H. destruct H as (q & _ & H). apply bind_ok in H. destruct H as (q' & _ & H). apply bind_ok in H. destruct H as (wk & _ & H). apply bind_ok in H. destruct H as (wk' & _ & H).
    eexists _, csm, _. split; [exact H|]. split; [apply CF_tasks_same; auto|]. split; [reflexivity | apply Hadd].
  - apply bind_ok in H. destruct H as (c' & Hr & H).
    eexists _, csm, _. split; [exact H|]. split; [|split; [exact (BijSt.try_remove_redirection_tasks _ _ _ Hr) | apply Hadd]].
    eapply CF_trans; [eapply try_remove_redirection_CF; exact Hr | apply CF_tasks_same; auto].
  - apply bind_ok in H. destruct H as (wk & _ & H). apply bind_ok in H. destruct H as (wk' & _ & H).
    eexists _, csm, _. split; [exact H|]. split; [apply CF_tasks_same; auto|]. split; [reflexivity | apply Hadd].
  - apply bind_ok in H. destruct H as (c' & Hr & H). destruct ws as [|w0 ws0]; [discriminate|].
    eexists _, csm, _. split; [exact H|]. split; [|split; [exact (BijReact.reset_mn_all_tasks _ _ _ Hr) | apply Hadd]].
    eapply CF_trans; [eapply reset_mn_all_CF; exact Hr | apply CF_tasks_same; auto].
  - discriminate.
Qed.

Lemma cancel_release_eff X ids : forall s tu ru s' tu' ru',
  cancel_release s ids tu ru = Ok (s', tu', ru') ->
  CF X (core_of s) (core_of s') /\ hq_of s' = hq_of s /\ s_procs (fst s') = s_procs (fst s) /\
  c_tasks (core_of s') = c_tasks (core_of s) /\
  (forall y, In y tu -> In y tu') /\
  (forall y, In y ids -> find_task (c_tasks (core_of s)) y <> None -> In y tu') /\
  (forall y, In y (gids ru') -> In y (gids ru) \/ (In y ids /\ find_task (c_tasks (core_of s)) y <> None)).
Proof.
  induction ids as [|id r IH]; intros s tu ru s' tu' ru' H.
  - cbn [cancel_release] in H. inversion H; subst. split; [apply CF_refl|]. repeat split; auto. intros y [].
  - destruct (find_task (c_tasks (core_of s)) id) as [t|] eqn:Ef.
    + destruct (cancel_release_head X _ _ _ _ _ _ _ Ef H) as (c1 & csm & ru1 & H' & F1 & Et & Hru).
      destruct (IH _ _ _ _ _ _ H') as (A & B & C & T & D & E & F). change (core_of (st_core s c1)) with c1 in *.
      split; [eapply CF_trans; eassumption|]. split; [exact B|]. split; [exact C|]. split; [congruence|].
      split; [intros y Hy; apply D, tid_insert_all_keeps, tid_insert_keeps; exact Hy|]. split.
      * intros y [<-|Hy] Hp; [apply D, tid_insert_all_keeps, tid_insert_has | apply E; [exact Hy | rewrite Et; exact Hp]].
      * intros y Hy. destruct (F y Hy) as [G|[G1 G2]].
        -- destruct (Hru y G) as [->|G']; [right; split; [left; reflexivity | congruence] | left; exact G'].
        -- right. split; [right; exact G1 | rewrite <- Et; exact G2].
    + cbn [cancel_release] in H. rewrite Ef in H. destruct (IH _ _ _ _ _ _ H) as (A & B & C & T & D & E & F). split; [exact A|]. repeat split; auto.
      * intros y [<-|Hy] Hp; [congruence | apply E; assumption].
      * intros y Hy. destruct (F y Hy) as [G|[G1 G2]]; [left; exact G | right; split; [right; exact G1 | exact G2]].
Qed.

Lemma pg_cancel_tids ru w y : In y (flat_map dmsg_tids (msgs_for w (pg DCancel ru))) -> In y (gids ru).
Proof.
  unfold msgs_for, pg, gids. rewrite in_flat_map. intros (m & Hm & Hy). apply in_map_iff in Hm. destruct Hm as ([k m0] & <- & Hin).
  apply filter_In in Hin. destruct Hin as [Hin _]. apply in_map_iff in Hin. destruct Hin as ([k1 l] & E & Hl). inversion E; subst.
  cbn in Hy. apply in_flat_map. exists (k, l). auto.
Qed.

Lemma on_cancel_tasks_SP X s pum ids s' :
  SP X s pum [] -> on_cancel_tasks s ids = Ok s' ->
  SP X s' pum [] /\ (forall y, In y ids -> find_task (c_tasks (core_of s')) y = None) /\
  (forall y t', find_task (c_tasks (core_of s')) y = Some t' -> find_task (c_tasks (core_of s)) y <> None).
Proof.
  intros HS H. unfold on_cancel_tasks in H. apply bind_ok in H. destruct H as ([[s1 tu] ru] & H1 & H).
  apply bind_ok in H. destruct H as (c' & H2 & H).
  destruct (cancel_release_eff X _ _ _ _ _ _ _ H1) as (F1 & Eh & Ep & Et & _ & Hids & Hg).
  assert (S1 : SP X s1 pum []).
  { apply (SP_ext _ (st_core s (core_of s1)) s1); [|reflexivity | exact Eh | exact Ep]. apply (SP_CF X X); [exact HS | exact F1 | auto]. }
  destruct (remove_tasks_batched_CF X _ _ _ (sp_cs _ _ _ _ S1) H2) as [F2 N2].
  assert (S2 : SP X (st_core s1 c') pum []) by (apply (SP_CF X X); [exact S1 | exact F2 | auto]).
  assert (S3 : SP X (st_core s1 c') pum (pg DCancel ru)).
  { apply SP_add_pending; [exact S2 | intros w m; apply (pg_plain DCancel w ru); intros; exact I|].
    intros w y Hy. apply pg_cancel_tids in Hy. destruct (Hg y Hy) as [[]|[G1 G2]]. split; [apply N2; apply Hids; assumption|].
    change (hq_of (st_core s1 c')) with (hq_of s1). rewrite Eh.
    destruct (find_task (c_tasks (core_of s)) y) as [ty|] eqn:Ey; [|congruence]. eapply (sp_pres _ _ _ _ HS). exact Ey. }
  pose proof (send_all_SP _ _ _ _ _ S3 H) as S4.
  assert (Ec : core_of s' = c') by (rewrite (BijSt.send_all_core _ _ _ H); reflexivity).
  split; [exact S4|]. rewrite Ec. split.
  - intros y Hy. destruct (find_task (c_tasks c') y) as [t'|] eqn:E; [|reflexivity]. exfalso.
    pose proof (cf_sub _ _ _ F2 _ _ E) as Hp. rewrite Et in Hp. rewrite (N2 y (Hids y Hy Hp)) in E. discriminate.
  - intros y t' Hy. pose proof (cf_sub _ _ _ F2 _ _ Hy) as Hp. rewrite Et in Hp. exact Hp.
Qed.

(** * [task_failed] (the failing task is hidden by the caller) *)

(** The first phase of [task_failed]: the task leaves the sets of the worker(s) it is placed on. *)
Definition failed_release (c : core) (wo : option wid) (id : tid) (rq : rqdef) (t : task) : res core :=
  match wo with
  | Some wkr =>
      if rq_is_mn rq then
        match t_state t with
        | RunningMN ws =>
            match ws with
            | w0 :: _ => if N.eqb w0 wkr then reset_mn_workers c ws id else Panic 165
            | [] => Panic 165
            end
        | _ => Panic 166
        end
      else
        match t_state t with
        | Assigned w1 _ | Running w1 _ =>
            if negb (N.eqb wkr w1) then Panic 167
            else do wk <- get_worker (c_workers c) wkr;
                 do wk' <- remove_sn_task wk id (rq_res rq);
                 Ok (upd_worker c wk')
        | Prefilled w1 =>
            if negb (N.eqb wkr w1) then Panic 167
            else do q <- nth_queue (c_queues c) (N.to_nat (t_rq t));
                 do q' <- q_remove_prefilled q id;
                 do wk <- get_worker (c_workers c) wkr;
                 do wk' <- remove_prefill_task wk id;
                 Ok (upd_worker (with_queues c (set_queue (c_queues c) (N.to_nat (t_rq t)) q')) wk')
        | Retracting w1 =>
            if negb (N.eqb wkr w1) then Panic 167 else try_remove_redirection c t
        | _ => Ok c
        end
  | None => if is_waiting t then Ok c else Panic 168
  end.

Lemma released_CF X c id rq t c1 : released c id rq t c1 -> CF X c c1.
Proof.
  intros [Hs | w wk wk' Hs Hw Hrm | w q q' wk wk' Hs Hq Hq' Hw Hrm | w c2 Hs H1 | ws c2 Hs H1 | ws c2 Hs H1].
  - apply CF_refl.
  - apply CF_tasks_same; auto.
  - apply CF_tasks_same; auto.
  - eapply try_remove_redirection_CF; exact H1.
  - eapply reset_mn_all_CF; exact H1.
  - eapply reset_mn_workers_CF; exact H1.
Qed.

Lemma failed_release_CF X c wo id rq t c1 : failed_release c wo id rq t = Ok c1 -> CF X c c1.
Proof.
  intros H1. destruct (ReactSplit.failed_release _ _ _ _ _ _ H1) as [Hrel | (-> & _)]; [exact (released_CF _ _ _ _ _ _ Hrel) | apply CF_refl].
Qed.

Lemma task_failed_SPX s wo id k pum s' :
  SP (xadd x0 id) s pum [] -> task_failed s wo id k = Ok s' -> SP x0 s' pum [].
Proof.
  intros HS H. unfold task_failed in H. cbv zeta in H.
  destruct (find_task (c_tasks (core_of s)) id) as [t|] eqn:Ef.
  2:{ inversion H; subst. apply (SP_show_absent x0 _ _ _ id); [exact HS | reflexivity | exact Ef]. }
  set (X1 := xadd x0 id) in *.
  apply bind_ok in H. destruct H as (rq & _ & H). apply bind_ok in H. destruct H as (c1 & H1 & H).
  apply bind_ok in H. destruct H as (csm & _ & H). apply bind_ok in H. destruct H as (c2 & H2 & H).
  apply bind_ok in H. destruct H as ([c3 stt] & H3 & H). apply bind_ok in H. destruct H as (u & _ & H).
  apply bind_ok in H. destruct H as ([s1 cids] & H4 & H).
  pose proof (failed_release_CF X1 (core_of s) wo id rq t c1 H1) as F1.
  pose proof (sp_cs _ _ _ _ HS) as Hcs.
  destruct (remove_waiting_consumers_CF X1 _ _ _ (CF_sorted_after _ _ _ F1 Hcs) H2) as [F2 N2].
  pose proof (CF_trans _ _ _ _ F1 F2) as F12.
  destruct (remove_task_CF X1 _ _ _ _ (CF_sorted_after _ _ _ F12 Hcs) H3) as (F3 & N3 & _).
  pose proof (CF_trans _ _ _ _ F12 F3) as F123.
  assert (S3 : SP x0 (st_core s c3) pum []).
  { apply (SP_show_absent x0 _ _ _ id); [|reflexivity | exact N3]. apply (SP_CF X1 X1); [exact HS | exact F123 | auto]. }
  destruct (process_task_failed_frame _ _ _ _ _ _ H4) as [Ec4 Ep4]. pose proof (process_task_failed_chg _ _ _ _ _ _ H4) as Hchg.
  set (X2 := fun y => tid_mem y cids).
  assert (S4 : SP X2 s1 pum []).
  { apply (SP_hq_chg X2 _ (st_core s c3) _ _ s1 (SP_more_hidden x0 X2 _ _ _ S3 (fun _ _ => eq_refl)) Ec4 Ep4 Hchg).
    intros y ty Hy HX [->|[Hc|Hc]].
    - change (core_of (st_core s c3)) with c3 in Hy. congruence.
    - change (core_of (st_core s c3)) with c3 in Hy. pose proof (cf_sub _ _ _ F3 _ _ Hy) as Hp. apply Hp. apply N2. exact Hc.
    - unfold X2 in HX. apply tid_mem_In in Hc. congruence. }
  destruct cids as [|c0 cr].
  - inversion H; subst s'. apply (SP_more_hidden X2 x0); [exact S4 | intros y _; reflexivity].
  - destruct (on_cancel_tasks_SP X2 _ _ _ _ S4 H) as (S5 & N5 & _).
    apply (SP_unhide_absent X2); [exact S5|]. intros y Hy. apply N5. apply tid_mem_In. exact Hy.
Qed.

Lemma task_failed_SP s w id k r s' :
  SP x0 s (pum_us w (UFailed id k :: r)) [] -> task_failed s (Some w) id k = Ok s' -> SP x0 s' (pum_us w r) [].
Proof.
  intros HS H. eapply task_failed_SPX; [|exact H].
  apply (SP_hide_head s w (UFailed id k) r id HS). intros y Hy. cbn [uitem_of]. apply sel_other. congruence.
Qed.
