(** C06 "instance ids strictly increase": [EX] across the operations of the server - those
    described by [ExecU6.step_server_PR], and the loss of a worker; every operation; every history;
    the theorem, also in the form of the executable monitor. *)
From HQ Require Import Base.Prelude Cluster.Types Cluster.Core Cluster.Reactor Cluster.Worker Cluster.Server Cluster.Sys Cluster.Monitors Cluster.RejHyp Cluster.ProofsJob Cluster.ProofsMore Cluster.ProofsTerminal Cluster.ProofsStep Cluster.ProofsFinal Cluster.ProofsOnce Cluster.BijBase Cluster.BijCore Cluster.BijHq Cluster.BijSt Cluster.BijReact Cluster.BijFinal Cluster.InvWBase Cluster.InvWX1 Cluster.InvWX3 Cluster.InvDStep Cluster.InvBundle Cluster.InvProcsDef Cluster.NoPanicC1 Cluster.NoPanicL0 Cluster.NoPanicU0 Cluster.NoPanicU1 Cluster.NoPanicU2 Cluster.NoPanicU6 Cluster.NoPanicU20 Cluster.NoPanicU8 Cluster.NoPanicU11 Cluster.NoPanicU12 Cluster.ExecU1 Cluster.ExecU2 Cluster.ExecU3 Cluster.ExecU5 Cluster.ExecU6 Cluster.ExecU9 Cluster.ExecU10 Cluster.ExecU13.
From HQ Require Import Cluster.StepShape.
From HQ Require Import Cluster.ModelFacts.
From Coq Require Import ZArith Lia Sorting.Sorted.
Local Open Scope N_scope.

Lemma step_T_given s o x : step_T s o x -> exists p, In p (s_procs s) /\ In x (gives (p_up p)).
Proof.
  destruct o; cbn [step_T]; try (intros []). destruct (find_proc (s_procs s) w) as [p|] eqn:Hp; [|intros []].
  destruct (p_up p) as [|m rest] eqn:Eu; [intros []|]. intros Hx. exists p. split; [exact (proj1 (find_proc_some _ _ _ Hp))|].
  rewrite Eu. change (m :: rest) with ([m] ++ rest). rewrite gives_app. apply in_app_iff. left. exact Hx.
Qed.

Lemma given_seen s p x : PROTO s -> In p (s_procs s) -> In x (gives (p_up p)) -> seen (s_hq s) x = true.
Proof.
  intros HP Hp Hx. apply (pr_seen _ HP (p_id p) p x (in_find_proc _ _ (pr_sorted _ HP) Hp)).
  unfold proc_tids. apply in_app_iff. right. apply in_app_iff. left.
  unfold gives in Hx. apply in_flat_map in Hx. destruct Hx as (m & Hm & Hx). apply in_flat_map. exists m. split; [exact Hm|].
  destruct m as [us|ids]; [|exact Hx]. cbn [umsg_tids]. unfold ugives in Hx. apply in_flat_map in Hx. destruct Hx as (u & Hu & Hx).
  apply in_flat_map. exists u. split; [exact Hu|]. destruct u; try contradiction. exact Hx.
Qed.

Theorem EX_server_op s pre o s' outs : server_op o ->
  EX s pre -> INV s -> INV s' -> PROTO s -> PROTO s' -> step s o = Ok (s', outs) -> EX s' (pre ++ outs).
Proof.
  intros Ho HE HI HI' HP HP' H. destruct (step_server_PR s o s' outs Ho HI HP H) as (s1 & o1 & Hpop & Ho1 & (L & P & S)).
  destruct (popped_proc _ _ _ Hpop) as [Hhq Hproc].
  pose proof (cb_s _ (inv_cb _ HI)) as Hcs. pose proof (cb_s _ (inv_cb _ HI')) as Hcs'.
  pose proof (step_TT s o s' outs H) as HT.
  pose proof (fun x t' => new_unseen s s' outs x t' HI HI' (G_step _ _ _ _ (inv_fresh _ HI) H)) as Hnew.
  apply (EX_server s s' pre outs (step_T s o) HE HP HP' Hcs Hcs').
  - unfold LS in L. cbn [snd] in L. rewrite L. exact Ho1.
  - intros x Hx. specialize (S x). unfold hq_of in S. cbn [fst] in S. rewrite Hhq in S. exact (S Hx).
  - exact Hnew.
  - exact HT.
  - apply step_T_given.
  - intros w p' Hp'. destruct (P w p' Hp') as (p1 & add & X1 & X2 & X3 & X4 & X5 & X6). cbn [fst] in X1.
    destruct (Hproc w p1 X1) as (p & hd & Hp & Eb & Er & Ed & Eu). exists p, add. split; [exact Hp|]. split; [congruence|].
    split; [intros y Hy; rewrite Eu, gives_app, <- X4; apply in_app_iff; right; exact Hy|]. split; [congruence|].
    intros ct Hct. destruct (AC_ct _ _ _ _ _ X6 Hct) as (Hsent & t' & Ht' & Ei). split; [eauto|]. set (x := ct_id ct) in *.
    destruct Hsent as [Hgiven|(sol & ->)].
    + (* given back in the message processed *)
      destruct (TT_find _ _ _ _ _ _ Hcs Hcs' HT Ht') as [(t & Ht & _)|Hn]; [exists t; split; [exact Ht | right; exact Hgiven]|].
      exfalso. destruct (step_T_given s o x Hgiven) as (q & Hq & Hgq). pose proof (given_seen s q x HP Hq Hgq). pose proof (Hnew x t' Hn Ht'). congruence.
    + (* a scheduling round sends waiting tasks only: compare the words of (w, x) before and after *)
      destruct Hpop as [->|(w0 & _ & _ & _ & Eo & _)]; [|discriminate Eo]. clear Hproc.
      assert (p1 = p) by congruence. subst p1. clear X1.
      pose proof H as H0. cbn [step] in H0. destruct (c_flag (s_core s)); [|discriminate].
      pose proof (run_scheduling_same _ _ _ H0) as Hh. unfold hq_same, hq_of in Hh. cbn [fst] in Hh.
      destruct (find_task_some _ _ _ Ht') as [Hin' Hid'].
      destruct (run_scheduling_SR _ _ _ H0 t' Hin') as (t & Hin & Eid & Hrel).
      assert (Ht : find_task (c_tasks (s_core s)) x = Some t).
      { rewrite <- Hid', <- Eid. apply in_find_task; [exact (CS_sorted _ Hcs) | exact Hin]. }
      exists t. split; [exact Ht|]. left.
      pose proof (pr_words _ HP' w p' x t' Hp' Ht') as Hl'. rewrite X5, ditems_app, X4 in Hl'.
      rewrite (local_eq p p' x X3 X2) in Hl'.
      assert (Hpos : (0 < idc (ditems x add))%nat) by (rewrite <- dc_ditems; unfold dc; apply ccnt_pos; eauto).
      destruct (lang_new_copy _ _ _ _ _ Hl' Hpos) as (HD & HU & HL & Hv').
      pose proof (pr_words _ HP w p x t Hp Ht) as Hl. rewrite HD, HU, HL in Hl.
      apply lang_empty in Hl. rewrite Hh in Hv'.
      destruct Hrel as [Es|[Hw|(w0 & Es & Es')]]; [|exact Hw|]; exfalso.
      * rewrite Es in Hv'. destruct Hl as [E|[(rv & E)|E]]; rewrite E in Hv'; destruct Hv' as [(rv' & X)|[X|[X|X]]]; discriminate.
      * rewrite Es' in Hv'. rewrite Es in Hl. cbn [view_of] in Hv', Hl. destruct (N.eqb w0 w).
        -- destruct Hl as [E|[(rv & E)|E]]; discriminate.
        -- destruct Hv' as [(rv' & X)|[X|[X|X]]]; discriminate.
Qed.

Theorem EX_lost s pre w reason a p t s' outs :
  EX s pre -> INV s -> INV s' -> PROTO s -> PROTO s' -> step s (OpLost w reason a p t) = Ok (s', outs) -> EX s' (pre ++ outs).
Proof.
  intros HE HI HI' HP HP' H. pose proof H as H0. cbn [step] in H0. destruct (find_proc (s_procs s) w) as [pw|] eqn:Hpw; [|discriminate].
  pose proof (pr_sorted _ HP) as Hps. pose proof (pr_sorted _ HP') as Hps'.
  destruct (on_remove_worker_EXF (s, []) w reason a p t (s', outs) (inv_cb _ HI) Hps Hps' H0) as (L & S & PFL & CCL).
  cbn [fst core_of] in PFL, CCL.
  pose proof (cb_s _ (inv_cb _ HI)) as Hcs. pose proof (cb_s _ (inv_cb _ HI')) as Hcs'. change (core_of (s, [])) with (s_core s) in Hcs. change (core_of (s', [])) with (s_core s') in Hcs'.
  apply (EX_transfer s s' pre outs (step_T s (OpLost w reason a p t)) HE HP HP' Hcs Hcs').
  - unfold LS in L. cbn [snd] in L. exact L.
  - exact S.
  - intros x t' Hn Hf. exact (new_unseen s s' outs x t' HI HI' (G_step _ _ _ _ (inv_fresh _ HI) H) Hn Hf).
  - exact (step_TT s _ s' outs H).
  - intros x [].
  - intros p' y Hin' Hy. destruct (PFL _ _ (in_find_proc _ _ Hps' Hin')) as (_ & p0 & add & Hf0 & _ & _ & Eu & _). rewrite Eu in Hy.
    exists p0. split; [exact (proj1 (find_proc_some _ _ _ Hf0)) | exact Hy].
  - (* the new copies carry instance ids above the old ones ([AL]) *)
    intros x j Hc. destruct (tags_in _ _ Hc) as (p' & Hin' & Hc').
    destruct (PFL _ _ (in_find_proc _ _ Hps' Hin')) as (_ & p0 & add & Hf0 & Eb & _ & _ & Ed & Hadd).
    destruct (ptags_app_down p0 p' add Eb Ed _ Hc') as [Ho|Hn]; [left; eapply tags_of; [exact (proj1 (find_proc_some _ _ _ Hf0)) | exact Ho]|].
    right. apply in_map_iff in Hn. destruct Hn as (ct & E & Hct). unfold ctag in E. inversion E; subst x j.
    unfold dcts in Hct. apply in_flat_map in Hct. destruct Hct as (m & Hm & Hcm). rewrite Forall_forall in Hadd. specialize (Hadd m Hm).
    destruct m as [cts| | | | | |]; try destruct Hcm. cbn [AL] in Hadd. destruct (Hadd ct Hcm) as [(t0 & Hin0 & Ei0 & Lt0) Hle]. split.
    + exists t0. split; [rewrite <- Ei0; apply in_find_task; [exact (CS_sorted _ Hcs) | exact Hin0] | left; exact Lt0].
    + intros t' Ht'. destruct (find_task_some _ _ _ Ht') as [Hin2 Hid2]. exact (Hle t' Hin2 Hid2).
  - (* a task the server has dropped: the one new copy replaces those of the lost worker *)
    intros x _. pose proof (psum_del_le (pc x) (s_procs s) w) as Hd. rewrite <- !cc_psum in Hd. pose proof (ex_u _ _ HE x) as EU.
    destruct (CCL x) as [Hc|[Hc (t0 & Ht0 & Est0)]]; [lia|].
    pose proof (known_placed s HP x t0 Ht0 w ltac:(rewrite Est0; reflexivity)) as Hz. rewrite psum_ex1 in Hz. lia.
Qed.

Theorem step_EX s pre o s' outs :
  EX s pre -> INV s -> INV s' -> PROTO s -> PROTO s' -> step s o = Ok (s', outs) -> EX s' (pre ++ outs).
Proof.
  intros HE HI HI' HP HP' H. destruct (server_op_dec o) as [Ho|Hn]; [exact (EX_server_op s pre o s' outs Ho HE HI HI' HP HP' H)|].
  set (R := fun a b : st => EX (fst a) pre -> INV (fst a) -> INV (fst b) -> PROTO (fst a) -> PROTO (fst b) -> EX (fst b) (pre ++ snd b)).
  refine (step_walk R (fun o => ~ server_op o) _ _ _ _ _ _ _ _ _ _ _ _ _ _ _ _ s o s' outs Hn H HE HI HI' HP HP'); unfold R; clear; cbn [fst snd];
    try (intros; match goal with Hn : ~ server_op _ |- _ => destruct (Hn I) end). (* the guard excludes the server's entry points *)
  - intros s rs g s' _ H HE _ _ _ _. exact (EX_connect s pre rs g s' HE H).
  - intros s w reason a p t pw [s' outs] _ Hp H HE HI HI' HP HP'. apply (EX_lost s pre w reason a p t s' outs HE HI HI' HP HP').
    cbn [step]. rewrite Hp. exact H.
  - intros s o c a _ HE _ _ _ _. apply EX_out; [reflexivity | exact HE].
  - intros s lj _ _ HE _ _ _ _. apply EX_out; [reflexivity | exact HE].
  - intros s w order p m rest p' ls _ Hp Ed Hm HE _ _ HP _. exact (EX_ddown s pre w order p m rest p' ls HE HP Hp Ed Hm).
  - intros s w t how p p' ls _ Hp Hm HE _ _ HP _. exact (EX_end s pre w t how p p' ls HE HP Hp Hm).
  - intros s w t p _ Hp HE _ _ HP _. exact (EX_failnext s pre w t p HE HP Hp).
  - intros s _ HE _ _ _ _. exact (EX_timer s pre HE).
Qed.

Lemma EX_init reserve maxfill : EX (init_sys reserve maxfill) [].
Proof.
  constructor; cbn.
  - intros x. lia.
  - intros x j [].
  - intros x j t [].
  - intros x t H. discriminate.
  - intros x t H. discriminate.
  - intros l [].
  - apply mono_nil.
Qed.

Theorem reachable_EX ops : forall reserve maxfill s outs,
  Forall op_wf ops -> ops_ok (init_sys reserve maxfill) ops = true -> run (init_sys reserve maxfill) ops = Ok (s, outs) -> EX s outs.
Proof. exact (reachable_ind EX EX_init step_EX ops). Qed.

(** C06: the launches of one task carry strictly increasing instance ids *)
Lemma launches_split outs a l1 b l2 c : outs = a ++ OLaunch l1 :: b ++ OLaunch l2 :: c ->
  launches outs = launches a ++ l1 :: launches b ++ l2 :: launches c.
Proof. intros ->. rewrite launches_app. cbn [launches flat_map app]. f_equal. f_equal. fold (launches (b ++ OLaunch l2 :: c)). rewrite launches_app. reflexivity. Qed.

Theorem instances_increase ops reserve maxfill s outs :
  Forall op_wf ops -> ops_ok (init_sys reserve maxfill) ops = true -> run (init_sys reserve maxfill) ops = Ok (s, outs) ->
  forall a l1 b l2 c, outs = a ++ OLaunch l1 :: b ++ OLaunch l2 :: c -> l_t l1 = l_t l2 -> l_inst l1 < l_inst l2.
Proof.
  intros Hwf Hok H a l1 b l2 c E Et. pose proof (ex_m _ _ (reachable_EX _ _ _ _ _ Hwf Hok H)) as Hm.
  exact (Hm _ _ _ _ _ (launches_split _ _ _ _ _ _ E) Et).
Qed.

Lemma find_last_filter (x y : tid) (last : list (tid * N)) : y <> x ->
  find (fun e => tid_eqb (fst e) y) (filter (fun e => negb (tid_eqb (fst e) x)) last) = find (fun e => tid_eqb (fst e) y) last.
Proof.
  intros Hne. induction last as [|[k i] r IH]; [reflexivity|]. cbn [filter find fst].
  destruct (tid_eqb k x) eqn:E1; cbn [negb].
  - apply tid_eqb_eq in E1. subst k. destruct (tid_eqb x y) eqn:E2; [apply tid_eqb_eq in E2; congruence | exact IH].
  - cbn [find fst]. destruct (tid_eqb k y); [reflexivity | exact IH].
Qed.

Lemma monitor_mono ls : forall prev last, mono (prev ++ ls) ->
  (forall x e, find (fun e => tid_eqb (fst e) x) last = Some e -> exists l, In l prev /\ l_t l = x /\ l_inst l = snd e) ->
  Monitors.instances_increase last (map ILaunch ls) = true.
Proof.
  induction ls as [|l r IH]; intros prev last Hm Hlast; [reflexivity|]. cbn [map Monitors.instances_increase].
  apply andb_true_iff. split.
  - destruct (find (fun x => tid_eqb (fst x) (l_t l)) last) as [[k i]|] eqn:Ef; [|reflexivity].
    destruct (Hlast _ _ Ef) as (l0 & Hin & Et & Ei). cbn [snd] in Ei. apply N.ltb_lt. rewrite <- Ei.
    apply in_split in Hin. destruct Hin as (a & b & ->). eapply (Hm a l0 b l r); [rewrite <- app_assoc; reflexivity | exact Et].
  - apply (IH (prev ++ [l])); [rewrite <- app_assoc; exact Hm|].
    intros x e Hf. cbn [find fst] in Hf. destruct (tid_eqb (l_t l) x) eqn:E.
    + apply tid_eqb_eq in E. inversion Hf; subst e. exists l. split; [apply in_app_iff; right; left; reflexivity | auto].
    + rewrite find_last_filter in Hf by (intros ->; rewrite tid_eqb_refl in E; discriminate).
      destruct (Hlast _ _ Hf) as (l0 & Hin & A & B). exists l0. split; [apply in_app_iff; left; exact Hin | auto].
Qed.

(** The trace predicate of Monitors.v, evaluated on the launches of the history (the other items
    of a trace are skipped by the predicate). *)
Theorem instances_increase_monitor ops reserve maxfill s outs :
  Forall op_wf ops -> ops_ok (init_sys reserve maxfill) ops = true -> run (init_sys reserve maxfill) ops = Ok (s, outs) ->
  Monitors.instances_increase [] (map ILaunch (launches outs)) = true.
Proof.
  intros Hwf Hok H. apply (monitor_mono _ []); [exact (ex_m _ _ (reachable_EX _ _ _ _ _ Hwf Hok H)) | intros x e Hf; discriminate].
Qed.

Print Assumptions instances_increase.
Print Assumptions instances_increase_monitor.
