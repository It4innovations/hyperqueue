(** The three core-level invariants put together: worker sets (InvW*.v), queues (InvQ*.v) and
    dependencies (InvD*.v) hold in EVERY reachable state of the system model, under the hypotheses
    on the history stated in InvWFinal.v ([op_wf], [run_fresh]).  Together they are the invariant
    I1 ([Monitors.core_ok] without the accounting conjunct, which the known finding F23 refutes). *)
From HQ Require Import Base.Prelude Cluster.Types Cluster.Core Cluster.Reactor Cluster.Worker Cluster.Server Cluster.Sys Cluster.Monitors Cluster.ProofsJob Cluster.ProofsFinal Cluster.BijFinal Cluster.RejHyp Cluster.InvWFinal Cluster.InvQBase Cluster.InvQStep Cluster.InvDSched Cluster.InvDStep.
From HQ Require Import Cluster.StepShape.
From HQ Require Import Cluster.ModelFacts.
From Coq Require Import ZArith Lia.
Local Open Scope N_scope.


Lemma run_fresh_snoc pre : forall s o s1 o1,
  run s pre = Ok (s1, o1) -> run_fresh s pre = true ->
  run_fresh s (pre ++ [o]) = (step_fresh s1 o && match step s1 o with Ok _ => true | _ => true end).
Proof.
  induction pre as [|p r IH]; cbn [run run_fresh app]; intros s o s1 o1 H1 Hf.
  - inversion H1; subst. destruct (step s1 o) as [[s2 o2]| |]; cbn; rewrite ?andb_true_r; reflexivity.
  - apply bind_ok in H1. destruct H1 as ([sa oa] & Ha & H1). apply bind_ok in H1. destruct H1 as ([sb ob] & Hb & H1).
    inversion H1; subst. rewrite Ha in *. apply andb_true_iff in Hf. destruct Hf as [Hf1 Hf2]. rewrite Hf1. cbn [andb].
    exact (IH _ _ _ _ Hb Hf2).
Qed.

Lemma Forall_snoc {A} (P : A -> Prop) l x : Forall P l -> P x -> Forall P (l ++ [x]).
Proof. intros Hl Hx. apply (proj2 (Forall_app P l [x])). split; [exact Hl|]. constructor; [exact Hx | constructor]. Qed.

Lemma along_reach (P : sys -> Prop) r m :
  (forall ops s outs, Forall op_wf ops -> run_fresh (init_sys r m) ops = true -> run (init_sys r m) ops = Ok (s, outs) -> P s) ->
  forall ops pre s outs, Forall op_wf pre -> run_fresh (init_sys r m) pre = true -> run (init_sys r m) pre = Ok (s, outs) ->
    Forall op_wf ops -> run_fresh s ops = true -> along P s ops.
Proof.
  intros HP. induction ops as [|o rest IH]; intros pre s outs Hwp Hfp Hrp Hw Hf.
  - split; [exact (HP pre s outs Hwp Hfp Hrp) | exact I].
  - split; [exact (HP pre s outs Hwp Hfp Hrp)|].
    destruct (step s o) as [[s1 o1]| |] eqn:Est; [|exact I|exact I].
    inversion Hw as [|? ? Hw1 Hw2]; subst.
    cbn [run_fresh] in Hf. rewrite Est in Hf. apply andb_true_iff in Hf. destruct Hf as [Hf1 Hf2].
    eapply (IH (pre ++ [o]) s1 (outs ++ o1)); [apply Forall_snoc; assumption | | eapply run_snoc; eassumption | exact Hw2 | exact Hf2].
    rewrite (run_fresh_snoc _ _ _ _ _ Hrp Hfp), Hf1, Est. reflexivity.
Qed.

Theorem queue_invariant_reachable ops reserve maxfill s outs :
  Forall op_wf ops -> run_fresh (init_sys reserve maxfill) ops = true -> run (init_sys reserve maxfill) ops = Ok (s, outs) ->
  let c := s_core s in
  queues_live_ok c = true /\
  (forall t, In t (c_tasks c) ->
     let q := queue_of c (t_rq t) in
     match t_state t with
     | Waiting n => in_ready q (t_id t) = N.eqb n 0 /\ in_prefill q (t_id t) = false
     | Prefilled _ => in_prefill q (t_id t) = true /\ in_ready q (t_id t) = false
     | Retracting _ => in_prefill q (t_id t) = false /\
                       (in_ready q (t_id t) = match find_redirect (c_redirects c) (t_id t) with Some _ => false | None => true end)
     | Assigned _ _ | Running _ _ | RunningMN _ => in_ready q (t_id t) = false /\ in_prefill q (t_id t) = false
     | Finished => False
     end) /\
  (forall rq q id, nth_error (c_queues c) rq = Some q -> (in_ready q id = true \/ in_prefill q id = true) ->
     exists t, find_task (c_tasks c) id = Some t /\ N.to_nat (t_rq t) = rq).
Proof.
  intros Hwf Hf H. apply (queue_invariant ops reserve maxfill s outs Hwf H).
  eapply (along_reach _ reserve maxfill) with (pre := []); [| constructor | reflexivity | reflexivity | exact Hwf | exact Hf].
  intros ops0 s0 outs0 Hw0 Hf0 Hr0. eapply asg_ok_reachable; eassumption.
Qed.

(** C03: the dependency invariant, with both premises discharged. *)
Theorem deps_invariant_reachable ops reserve maxfill s outs :
  Forall op_wf ops -> run_fresh (init_sys reserve maxfill) ops = true -> run (init_sys reserve maxfill) ops = Ok (s, outs) ->
  forallb (deps_ok (s_core s)) (c_tasks (s_core s)) = true.
Proof.
  apply deps_invariant.
  - intros ops0 r m s0 outs0 Hw Hf Hr. destruct (queue_invariant_reachable _ _ _ _ _ Hw Hf Hr) as (_ & Q1 & Q2). split; [exact Q1 | exact Q2].
  - intros ops0 r m s0 outs0 Hw Hf Hr. exact (proj1 (worker_sets_invariant _ _ _ _ _ Hw Hf Hr)).
Qed.

(** Readable consequence: a task that has left the Waiting state (assigned, prefilled, being
    retracted, running) has NO dependency left in the core - every task it depends on has finished
    and been removed (a dependency that fails or is cancelled takes its dependents with it). *)
Corollary placed_task_has_no_pending_dependency ops reserve maxfill s outs :
  Forall op_wf ops -> run_fresh (init_sys reserve maxfill) ops = true -> run (init_sys reserve maxfill) ops = Ok (s, outs) ->
  forall t, In t (c_tasks (s_core s)) -> (match t_state t with Waiting _ => False | _ => True end) ->
  forall d, In d (t_deps t) -> find_task (c_tasks (s_core s)) d = None.
Proof.
  intros Hwf Hf H t Hin Hst d Hd.
  pose proof (deps_invariant_reachable _ _ _ _ _ Hwf Hf H) as HD. rewrite forallb_forall in HD.
  specialize (HD t Hin). unfold deps_ok in HD. apply andb_true_iff in HD. destruct HD as [HD _].
  destruct (t_state t); try contradiction;
    (rewrite forallb_forall in HD; specialize (HD d Hd); destruct (find_task (c_tasks (s_core s)) d); [discriminate | reflexivity]).
Qed.

(** ... and a task the scheduler may take (Waiting with counter 0) has none either. *)
Corollary ready_task_has_no_pending_dependency ops reserve maxfill s outs :
  Forall op_wf ops -> run_fresh (init_sys reserve maxfill) ops = true -> run (init_sys reserve maxfill) ops = Ok (s, outs) ->
  forall t, In t (c_tasks (s_core s)) -> t_state t = Waiting 0 ->
  forall d, In d (t_deps t) -> find_task (c_tasks (s_core s)) d = None.
Proof.
  intros Hwf Hf H t Hin Hst d Hd.
  pose proof (deps_invariant_reachable _ _ _ _ _ Hwf Hf H) as HD. rewrite forallb_forall in HD.
  specialize (HD t Hin). unfold deps_ok in HD. apply andb_true_iff in HD. destruct HD as [HD _].
  rewrite Hst in HD. apply N.eqb_eq in HD.
  destruct (find_task (c_tasks (s_core s)) d) as [dt|] eqn:Ef; [|reflexivity]. exfalso.
  (* dt is in the core, hence not Finished (queue invariant), so it is counted *)
  destruct (queue_invariant_reachable _ _ _ _ _ Hwf Hf H) as (_ & Q1 & _).
  destruct (find_task_some _ _ _ Ef) as [Hdin _]. specialize (Q1 dt Hdin). cbv zeta in Q1.
  assert (Hnf : is_finished dt = false) by (unfold is_finished; destruct (t_state dt); try reflexivity; contradiction).
  assert (Hmem : In d (filter (fun d0 => match find_task (c_tasks (s_core s)) d0 with Some dt0 => negb (is_finished dt0) | None => false end) (t_deps t))).
  { apply filter_In. split; [exact Hd|]. rewrite Ef, Hnf. reflexivity. }
  destruct (filter _ (t_deps t)); [destruct Hmem | cbn in HD; lia].
Qed.
