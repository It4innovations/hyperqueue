(** C09 (no reachable panic) for the scheduling step.
    The vocabulary ([np]: "is not a panic"), sizes of task queues and the taking functions of
    taskqueue.rs: [take_tasks(count)] does not panic iff the queue holds at least [count] ids, and
    it then delivers exactly [count] ids.  Then the frame relation [SF] (what a piece of the
    scheduling round may change), the bookkeeping predicates for tasks taken from a queue ([PT]) and
    for the mapping under construction ([MOK]), and the primitive updates. *)
From HQ Require Import Base.Prelude Cluster.Types Cluster.Core Cluster.Server Cluster.BijBase Cluster.InvWBase Cluster.InvQInv Cluster.InvQBase Cluster.InvQTake.
From HQ Require Import Cluster.ModelFacts.
From Coq Require Import ZArith Lia Sorting.Sorted.
Local Open Scope N_scope.
Arguments N.add : simpl never.
Arguments N.sub : simpl never.
Arguments N.mul : simpl never.
Arguments N.div : simpl never.

Definition np {A} (r : res A) : Prop := is_panic r = false.

Lemma np_ok {A} (a : A) : np (Ok a).
Proof. reflexivity. Qed.
Lemma np_disabled {A} : np (@Disabled A).
Proof. reflexivity. Qed.
Lemma np_bind {A B} (r : res A) (f : A -> res B) :
  np r -> (forall a, r = Ok a -> np (f a)) -> np (bind r f).
Proof. unfold np. destruct r; cbn; intros H1 H2; [apply H2; reflexivity | reflexivity | discriminate]. Qed.
Lemma ok_np {A} (r : res A) : (exists a, r = Ok a) -> np r.
Proof. intros (a & ->). reflexivity. Qed.

Definition nlen {A} (l : list A) : N := N.of_nat (length l).
Fixpoint esize (es : list qentry) : N := match es with [] => 0 | e :: t => nlen (qe_ids e) + esize t end.
Definition pfsize (pf : option (Z * list tid)) : N := match pf with Some (_, ts) => nlen ts | None => 0 end.
Definition qsize (q : queue) : N := esize (q_ready q) + pfsize (q_prefill q).

Lemma nlen_app {A} (a b : list A) : nlen (a ++ b) = nlen a + nlen b.
Proof. unfold nlen. rewrite app_length. lia. Qed.
Lemma nlen_nil {A} : nlen (@nil A) = 0.
Proof. reflexivity. Qed.
Lemma nlen_cons {A} (x : A) l : nlen (x :: l) = 1 + nlen l.
Proof. unfold nlen. cbn [length]. lia. Qed.

Lemma take_n_len {A} n : forall (l a b : list A), take_n n l = (a, b) ->
  length a = Nat.min n (length l) /\ (b <> [] -> length a = n).
Proof.
  induction n as [|k IH]; intros l a b H.
  - destruct l; cbn in H; inversion H; subst; cbn; auto.
  - destruct l as [|h t]; cbn [take_n] in H; [inversion H; subst; cbn; split; [reflexivity | congruence]|].
    destruct (take_n k t) as [a0 b0] eqn:E. inversion H; subst. destruct (IH _ _ _ E) as [I1 I2].
    cbn [length]. split; [rewrite I1; reflexivity | intros Hb; rewrite (I2 Hb); reflexivity].
Qed.

Lemma take_from_first_more e t count a b :
  qe_more e = true -> take_n (N.to_nat count) (qe_ids e) = (a, b) ->
  take_from_first (e :: t) count = Ok (a, match b with [] => t | _ => mkQE (qe_prio e) true b :: t end, count - nlen a).
Proof. intros Em Et. unfold take_from_first. rewrite Em, Et. destruct b; reflexivity. Qed.

Lemma take_from_first_one e t count :
  qe_more e = false -> count <> 0 -> take_from_first (e :: t) count = Ok (qe_ids e, t, count - 1).
Proof. intros Em Hc. unfold take_from_first. rewrite Em. apply N.eqb_neq in Hc. rewrite Hc. reflexivity. Qed.

Lemma take_from_first_np e t count :
  eok e -> (qe_more e = false -> count <> 0) ->
  exists a es' c, take_from_first (e :: t) count = Ok (a, es', c) /\
    nlen a + c = count /\ esize es' + nlen a = esize (e :: t) /\ (c = 0 \/ es' = t) /\ (length es' <= length (e :: t))%nat.
Proof.
  intros [Hs Hone] Hc. destruct (qe_more e) eqn:Em.
  - destruct (take_n (N.to_nat count) (qe_ids e)) as [a b] eqn:Et.
    pose proof (take_n_app _ _ _ _ Et) as Eab. destruct (take_n_len _ _ _ _ Et) as [L1 L2].
    eexists a, _, _. split; [apply take_from_first_more; eassumption|].
    assert (La : nlen (qe_ids e) = nlen a + nlen b) by (rewrite Eab; apply nlen_app).
    unfold nlen in *. cbn [esize]. destruct b as [|b0 bb].
    + cbn [length] in *. split; [lia|]. split; [unfold nlen; lia|]. split; [right; reflexivity | lia].
    + assert (Ln : length a = N.to_nat count) by (apply L2; discriminate).
      cbn [esize qe_ids]. unfold nlen. cbn [length] in *. split; [lia|]. split; [lia|]. split; [left; lia | lia].
  - destruct (Hone eq_refl) as (x & Ex). specialize (Hc eq_refl).
    eexists _, _, _. split; [apply take_from_first_one; assumption|].
    cbn [esize]. rewrite Ex. unfold nlen. cbn [length]. split; [lia|]. split; [lia|]. split; [right; reflexivity | lia].
Qed.

(** * The `while count > 0` loop: enough ids = no panic, and exactly [count] ids are delivered *)
Lemma take_loop_np fuel : forall es count acc,
  WFE es -> count <= esize es -> (count = 0 \/ (length es < fuel)%nat) ->
  exists ids es', take_loop fuel es count acc = Ok (ids, es') /\ nlen ids = nlen acc + count.
Proof.
  induction fuel as [|k IH]; intros es count acc W Hle Hf; cbn [take_loop].
  - destruct Hf as [->|Hf]; [|lia]. cbn. exists acc, es. split; [reflexivity | lia].
  - destruct (N.eqb count 0) eqn:E0.
    + apply N.eqb_eq in E0. subst count. exists acc, es. split; [reflexivity | lia].
    + apply N.eqb_neq in E0. destruct Hf as [Hf|Hf]; [contradiction|].
      destruct es as [|e t]; [cbn in Hle; lia|].
      destruct (WFE_inv _ _ W) as (He & _ & _).
      destruct (take_from_first_np e t count He (fun _ => E0)) as (a & es' & c & H1 & A1 & A2 & A3 & A4).
      rewrite H1. cbn [bind].
      assert (W' : WFE es').
      { assert (WQ : WFQ (mkQ (e :: t) None)) by (split; [exact W | exact I]).
        exact (proj1 (tk_wf _ _ _ (take_from_first_TakeQ _ _ _ _ _ _ WQ H1))). }
      destruct (IH es' c (acc ++ a) W') as (ids & es2 & H2 & L2).
      * lia.
      * destruct A3 as [->| ->]; [left; reflexivity | right; cbn [length] in Hf; lia].
      * exists ids, es2. split; [exact H2|]. rewrite L2, nlen_app. lia.
Qed.

(** * [drain_prefill] never panics (a wrong iteration-order witness disables the step) *)
Lemma drain_prefill_np pf order count : np (drain_prefill pf order count).
Proof.
  unfold drain_prefill, np. destruct pf as [[pp ts]|]; [|reflexivity].
  destruct (negb (perm_of_set order ts)); [reflexivity|].
  destruct (take_n (N.to_nat count) order) as [a r]. destruct (fold_left _ a ts); reflexivity.
Qed.

Lemma drain_prefill_len pf order count a pf' c :
  drain_prefill pf order count = Ok (a, pf', c) -> nlen a + c = count /\ (c = 0 \/ nlen a = pfsize pf).
Proof.
  unfold drain_prefill. destruct pf as [[pp ts]|]; [|intros H; inversion H; subst; cbn; split; [lia | right; reflexivity]].
  destruct (perm_of_set order ts) eqn:Ep; [|discriminate]. cbn [negb].
  destruct (take_n (N.to_nat count) order) as [a0 r] eqn:Et. destruct (take_n_len _ _ _ _ Et) as [L1 _].
  unfold perm_of_set in Ep. apply andb_true_iff in Ep. destruct Ep as [Ep _]. apply andb_true_iff in Ep. destruct Ep as [Ep _].
  apply N.eqb_eq in Ep.
  intros H. assert (E : a = a0 /\ c = count - nlen a0) by (destruct (fold_left _ a0 ts); inversion H; auto).
  destruct E as [-> ->]. cbn [pfsize]. unfold nlen in *. split; lia.
Qed.

Lemma take_tail_np pre es1 pf order c1 fuel :
  WFE es1 -> c1 <= esize es1 + pfsize pf -> (length es1 < fuel)%nat ->
  let r := (do (b, pf', c2) <- drain_prefill pf order c1;
            do (c, es2) <- take_loop fuel es1 c2 [];
            Ok (pre ++ b ++ c, mkQ es2 pf')) in
  np r /\ forall ids q', r = Ok (ids, q') -> nlen ids = nlen pre + c1.
Proof.
  intros W Hle Hf r. subst r.
  destruct (drain_prefill pf order c1) as [[[b pf'] c2]| |] eqn:Ed.
  - destruct (drain_prefill_len _ _ _ _ _ _ Ed) as [D1 D2]. cbn [bind].
    destruct (take_loop_np fuel es1 c2 [] W) as (ids & es2 & H2 & L2).
    + destruct D2 as [->|D2]; lia.
    + right. exact Hf.
    + rewrite H2. cbn [bind]. split; [reflexivity|]. intros ids0 q' H. inversion H; subst.
      rewrite !nlen_app, L2, nlen_nil. lia.
  - cbn [bind]. split; [reflexivity | discriminate].
  - pose proof (drain_prefill_np pf order c1) as X. rewrite Ed in X. discriminate.
Qed.

Theorem q_take_tasks_np q count order :
  WFQ q -> count <= qsize q ->
  np (q_take_tasks q count order) /\ forall ids q', q_take_tasks q count order = Ok (ids, q') -> nlen ids = count.
Proof.
  intros [W1 W2] Hle. unfold qsize in Hle. unfold q_take_tasks.
  destruct (q_prefill q) as [[pp ts]|] eqn:Ep.
  - destruct (match q_top_priority q with Some tp => Z.eqb tp pp | None => false end) eqn:Etop.
    + unfold q_top_priority in Etop. destruct (q_ready q) as [|e t] eqn:Er; [discriminate|].
      destruct (WFE_inv _ _ W1) as (He & _ & _).
      destruct (N.ltb 0 count) eqn:Ec.
      * apply N.ltb_lt in Ec.
        destruct (take_from_first_np e t count He) as (a & es1 & c1 & H1 & A1 & A2 & A3 & A4); [intros _; lia|].
        rewrite H1. cbn [bind].
        assert (W' : WFE es1).
        { assert (WQ : WFQ (mkQ (e :: t) None)) by (split; [exact W1 | exact I]).
          exact (proj1 (tk_wf _ _ _ (take_from_first_TakeQ _ _ _ _ _ _ WQ H1))). }
        destruct (take_tail_np a es1 (Some (pp, ts)) order c1 (S (length (e :: t))) W') as [N1 N2]; [cbn [pfsize] in *; lia | lia |].
        split; [exact N1|]. intros ids q' H. rewrite (N2 _ _ H). lia.
      * apply N.ltb_ge in Ec. cbn [bind].
        destruct (take_tail_np [] (e :: t) (Some (pp, ts)) order count (S (length (e :: t))) W1) as [N1 N2]; [exact Hle | lia |].
        split; [exact N1|]. intros ids q' H. rewrite (N2 _ _ H), nlen_nil. lia.
    + destruct (take_tail_np [] (q_ready q) (Some (pp, ts)) order count (S (length (q_ready q))) W1) as [N1 N2]; [exact Hle | lia |].
      split; [exact N1|]. intros ids q' H. rewrite (N2 _ _ H), nlen_nil. lia.
  - cbn [pfsize] in Hle.
    destruct (take_loop_np (S (length (q_ready q))) (q_ready q) count [] W1) as (ids & es2 & H2 & L2); [lia | right; lia |].
    rewrite H2. cbn [bind]. split; [reflexivity|]. intros ids0 q' H. inversion H; subst. rewrite L2, nlen_nil. lia.
Qed.

Fixpoint take_ones (n : nat) (q : queue) : bool :=
  match n with
  | O => true
  | S k => match q_take_one q with Some (_, q') => take_ones k q' | None => false end
  end.

Lemma q_take_one_ready q x q' : q_take_one q = Some (x, q') ->
  q_prefill q' = q_prefill q /\ (exists p, RdyAt q p x) /\ (forall p y, RdyAt q' p y -> RdyAt q p y).
Proof.
  unfold q_take_one, RdyAt. destruct (q_ready q) as [|e t] eqn:Er; [discriminate|].
  destruct (qe_ids e) as [|x0 rest] eqn:Ei; [discriminate|].
  assert (Hx : exists p, EAt (e :: t) p x0) by (exists (qe_prio e), e; split; [left; reflexivity | split; [reflexivity | rewrite Ei; left; reflexivity]]).
  assert (Ht : forall p y, EAt t p y -> EAt (e :: t) p y) by (intros p y H; apply EAt_cons; right; exact H).
  intros H. destruct (qe_more e).
  - destruct rest as [|r0 rr]; inversion H; subst; cbn [q_ready q_prefill]; (split; [reflexivity | split; [exact Hx|]]); [exact Ht|].
    intros p y Hy. apply EAt_cons in Hy. cbn [qe_prio qe_ids] in Hy. apply EAt_cons. destruct Hy as [[Hp Hy]|Hy]; [left; split; [exact Hp | rewrite Ei; right; exact Hy] | right; exact Hy].
  - inversion H; subst; cbn [q_ready q_prefill]. split; [reflexivity | split; [exact Hx | exact Ht]].
Qed.

Definition snw (c : core) (w : wid) : Prop :=
  exists wk a p f, find_worker (c_workers c) w = Some wk /\ w_assign wk = Sn a p f.
Definition SNP (c c' : core) : Prop := forall y, snw c y -> snw c' y.

Lemma SNP_refl c : SNP c c.
Proof. intros y H. exact H. Qed.
Lemma SNP_trans c c1 c2 : SNP c c1 -> SNP c1 c2 -> SNP c c2.
Proof. intros A B y H. apply B, A, H. Qed.
Lemma SNP_same c c' : c_workers c' = c_workers c -> SNP c c'.
Proof. intros E y H. unfold snw. rewrite E. exact H. Qed.
Lemma SNP_upd_worker c w wk wk' a p f :
  find_worker (c_workers c) w = Some wk -> w_id wk' = w -> w_assign wk' = Sn a p f -> SNP c (upd_worker c wk').
Proof.
  intros Hw Hi Ea y (wy & a0 & p0 & f0 & Hy & Ey). unfold snw. cbn [c_workers upd_worker with_workers].
  rewrite find_set_worker, Hi. destruct (N.eqb y w); [exists wk', a, p, f; auto | exists wy, a0, p0, f0; auto].
Qed.

Lemma with_state_same t : with_state t (t_state t) = t.
Proof. destruct t; reflexivity. Qed.

(** * The frame relation
    [T]: ids of the tasks that may change (only their state), [W]: the workers that may receive
    work (a FREE worker outside [W] stays as it is), [Q]: indices of the queues that may change. *)
Record SF (T : tid -> Prop) (W : wid -> Prop) (Q : nat -> Prop) (c c' : core) : Prop := mkSF {
  sf_rqs : c_rqs c' = c_rqs c;
  sf_res : c_reserve c' = c_reserve c;
  sf_max : c_maxfill c' = c_maxfill c;
  sf_qlen : length (c_queues c') = length (c_queues c);
  sf_q : forall i, ~ Q i -> nth_error (c_queues c') i = nth_error (c_queues c) i;
  sf_tst : forall y t, find_task (c_tasks c) y = Some t -> exists st, find_task (c_tasks c') y = Some (with_state t st);
  sf_tnone : forall y, find_task (c_tasks c) y = None -> find_task (c_tasks c') y = None;
  sf_t : forall y, ~ T y -> find_task (c_tasks c') y = find_task (c_tasks c) y;
  sf_r : forall y, ~ T y -> find_redirect (c_redirects c') y = find_redirect (c_redirects c) y;
  sf_wnone : forall y, find_worker (c_workers c) y = None -> find_worker (c_workers c') y = None;
  sf_wsome : forall y, find_worker (c_workers c) y <> None -> find_worker (c_workers c') y <> None;
  sf_free : forall y wk, ~ W y -> find_worker (c_workers c) y = Some wk -> worker_is_free wk = true ->
            find_worker (c_workers c') y = Some wk
}.

Lemma SF_refl T W Q c : SF T W Q c c.
Proof.
  constructor; auto. intros y t H. exists (t_state t). rewrite with_state_same. exact H.
Qed.

Lemma SF_trans T W Q c c1 c2 : SF T W Q c c1 -> SF T W Q c1 c2 -> SF T W Q c c2.
Proof.
  intros A B. constructor.
  - rewrite (sf_rqs _ _ _ _ _ B). apply A.
  - rewrite (sf_res _ _ _ _ _ B). apply A.
  - rewrite (sf_max _ _ _ _ _ B). apply A.
  - rewrite (sf_qlen _ _ _ _ _ B). apply A.
  - intros i Hi. rewrite (sf_q _ _ _ _ _ B i Hi). apply A. exact Hi.
  - intros y t H. destruct (sf_tst _ _ _ _ _ A y t H) as (s1 & H1). destruct (sf_tst _ _ _ _ _ B y _ H1) as (s2 & H2).
    exists s2. exact H2.
  - intros y H. apply (sf_tnone _ _ _ _ _ B). apply (sf_tnone _ _ _ _ _ A). exact H.
  - intros y Hy. rewrite (sf_t _ _ _ _ _ B y Hy). apply A. exact Hy.
  - intros y Hy. rewrite (sf_r _ _ _ _ _ B y Hy). apply A. exact Hy.
  - intros y H. apply (sf_wnone _ _ _ _ _ B). apply (sf_wnone _ _ _ _ _ A). exact H.
  - intros y H. apply (sf_wsome _ _ _ _ _ B). apply (sf_wsome _ _ _ _ _ A). exact H.
  - intros y wk Hy H F. apply (sf_free _ _ _ _ _ B y wk Hy); [|exact F]. apply (sf_free _ _ _ _ _ A y wk Hy); assumption.
Qed.

Lemma SF_weaken (T T' : tid -> Prop) (W W' : wid -> Prop) (Q Q' : nat -> Prop) c c' :
  (forall y, T y -> T' y) -> (forall y, W y -> W' y) -> (forall i, Q i -> Q' i) -> SF T W Q c c' -> SF T' W' Q' c c'.
Proof.
  intros HT HW HQ A. constructor; try apply A.
  - intros i Hi. apply A. intros X. apply Hi, HQ, X.
  - intros y Hy. apply A. intros X. apply Hy, HT, X.
  - intros y Hy. apply A. intros X. apply Hy, HT, X.
  - intros y wk Hy. apply A. intros X. apply Hy, HW, X.
Qed.

Lemma SF_find_back T W Q c c' y t' : SF T W Q c c' -> find_task (c_tasks c') y = Some t' ->
  exists t, find_task (c_tasks c) y = Some t /\ t' = with_state t (t_state t').
Proof.
  intros A H. destruct (find_task (c_tasks c) y) as [t|] eqn:E.
  - destruct (sf_tst _ _ _ _ _ A y t E) as (st & H1). rewrite H in H1. inversion H1; subst. exists t. split; reflexivity.
  - rewrite (sf_tnone _ _ _ _ _ A y E) in H. discriminate.
Qed.
Lemma SF_task_some T W Q c c' y : SF T W Q c c' -> find_task (c_tasks c) y <> None -> find_task (c_tasks c') y <> None.
Proof.
  intros A H. destruct (find_task (c_tasks c) y) as [t|] eqn:E; [|congruence].
  destruct (sf_tst _ _ _ _ _ A y t E) as (st & H1). congruence.
Qed.

Lemma SF_upd_worker T (W : wid -> Prop) Q c w wk wk' :
  find_worker (c_workers c) w = Some wk -> w_id wk' = w -> (W w \/ worker_is_free wk = false) -> SF T W Q c (upd_worker c wk').
Proof.
  intros Hw Hi Hf. constructor; cbn [c_rqs c_reserve c_maxfill c_queues c_tasks c_redirects c_workers upd_worker with_workers]; auto.
  - intros y t H. exists (t_state t). rewrite with_state_same. exact H.
  - intros y H. rewrite find_set_worker, Hi. destruct (N.eqb y w) eqn:E; [apply N.eqb_eq in E; subst y; congruence | exact H].
  - intros y H. rewrite find_set_worker, Hi. destruct (N.eqb y w); [discriminate | exact H].
  - intros y wk0 Hy H F. rewrite find_set_worker, Hi. destruct (N.eqb y w) eqn:E; [|exact H].
    apply N.eqb_eq in E. subst y. exfalso. destruct Hf as [Hf|Hf]; [exact (Hy Hf)|]. rewrite Hw in H. inversion H; subst. congruence.
Qed.

Lemma SF_upd_task (T : tid -> Prop) W Q c id t st :
  find_task (c_tasks c) id = Some t -> T id -> SF T W Q c (upd_task c (with_state t st)).
Proof.
  intros Ht HT. destruct (find_task_some _ _ _ Ht) as [_ Hid].
  constructor; cbn [c_rqs c_reserve c_maxfill c_queues c_tasks c_redirects c_workers upd_task with_tasks]; auto.
  - intros y t0 H. rewrite find_set_task. cbn [t_id with_state]. rewrite Hid. destruct (tid_eqb y id) eqn:E.
    + apply tid_eqb_eq in E. subst y. rewrite Ht in H. inversion H; subst. exists st. reflexivity.
    + exists (t_state t0). rewrite with_state_same. exact H.
  - intros y H. rewrite find_set_task. cbn [t_id with_state]. rewrite Hid. destruct (tid_eqb y id) eqn:E; [|exact H].
    apply tid_eqb_eq in E. subst y. congruence.
  - intros y Hy. rewrite find_set_task. cbn [t_id with_state]. rewrite Hid. destruct (tid_eqb y id) eqn:E; [|reflexivity].
    apply tid_eqb_eq in E. subst y. contradiction.
Qed.

Lemma SF_set_redirect (T : tid -> Prop) W Q c id x :
  T id -> SF T W Q c (with_redirects c (set_redirect (c_redirects c) id x)).
Proof.
  intros HT. constructor; cbn [c_rqs c_reserve c_maxfill c_queues c_tasks c_redirects c_workers with_redirects]; auto.
  - intros y t H. exists (t_state t). rewrite with_state_same. exact H.
  - intros y Hy. rewrite find_set_redirect. destruct (tid_eqb y id) eqn:E; [|reflexivity].
    apply tid_eqb_eq in E. subst y. contradiction.
Qed.

Lemma SF_set_queue T W (Q : nat -> Prop) c i q :
  Q i -> SF T W Q c (with_queues c (set_queue (c_queues c) i q)).
Proof.
  intros HQ. constructor; cbn [c_rqs c_reserve c_maxfill c_queues c_tasks c_redirects c_workers with_queues]; auto.
  - apply set_queue_length.
  - intros j Hj. apply nth_set_queue_other. intros ->. contradiction.
  - intros y t H. exists (t_state t). rewrite with_state_same. exact H.
Qed.

Definition takeable (c : core) (t : task) : Prop :=
  match t_state t with
  | Waiting _ | Prefilled _ => True
  | Retracting _ => find_redirect (c_redirects c) (t_id t) = None
  | _ => False
  end.
Definition PT (c : core) (i : nat) (l : list tid) : Prop :=
  forall id, In id l -> exists t, find_task (c_tasks c) id = Some t /\ takeable c t /\ N.to_nat (t_rq t) = i.

Lemma PT_SF (T : tid -> Prop) W Q c c' i l : SF T W Q c c' -> (forall y, In y l -> ~ T y) -> PT c i l -> PT c' i l.
Proof.
  intros A Hd H id Hin. destruct (H id Hin) as (t & Ht & Hk & Hr). exists t.
  split; [rewrite (sf_t _ _ _ _ _ A id (Hd id Hin)); exact Ht|]. split; [|exact Hr].
  unfold takeable in *. destruct (t_state t); auto. destruct (find_task_some _ _ _ Ht) as [_ Hid]. rewrite Hid in *.
  rewrite (sf_r _ _ _ _ _ A id (Hd id Hin)). exact Hk.
Qed.
Lemma PT_incl c i l l' : (forall y, In y l' -> In y l) -> PT c i l -> PT c i l'.
Proof. intros Hs H id Hin. apply H, Hs, Hin. Qed.

Definition MOK (c : core) (m : list wupd) : Prop :=
  forall u, In u m ->
    find_worker (c_workers c) (wu_w u) <> None /\
    (forall a, In a (wu_assigned u) -> find_task (c_tasks c) (fst a) <> None) /\
    (forall id, In id (wu_prefills u) -> find_task (c_tasks c) id <> None).

Lemma MOK_nil c : MOK c [].
Proof. intros u []. Qed.

Lemma MOK_SF T W Q c c' m : SF T W Q c c' -> MOK c m -> MOK c' m.
Proof.
  intros A H u Hu. destruct (H u Hu) as (H1 & H2 & H3). split; [apply (sf_wsome _ _ _ _ _ A); exact H1|].
  split; intros x Hx; eapply SF_task_some; eauto.
Qed.

Lemma wu_get_spec c m w : MOK c m ->
  wu_w (wu_get m w) = w /\
  (forall a, In a (wu_assigned (wu_get m w)) -> find_task (c_tasks c) (fst a) <> None) /\
  (forall id, In id (wu_prefills (wu_get m w)) -> find_task (c_tasks c) id <> None).
Proof.
  induction m as [|h t IH]; cbn [wu_get]; intros H.
  - cbn. split; [reflexivity|]. split; intros x [].
  - destruct (N.eqb w (wu_w h)) eqn:E.
    + apply N.eqb_eq in E. destruct (H h (or_introl eq_refl)) as (_ & H2 & H3). auto.
    + apply IH. intros u Hu. apply H. right. exact Hu.
Qed.

Lemma MOK_set c m x : MOK c m -> find_worker (c_workers c) (wu_w x) <> None ->
  (forall a, In a (wu_assigned x) -> find_task (c_tasks c) (fst a) <> None) ->
  (forall id, In id (wu_prefills x) -> find_task (c_tasks c) id <> None) -> MOK c (wu_set m x).
Proof.
  intros H H1 H2 H3 u Hu. destruct (wu_set_in _ _ _ Hu) as [->|Hin]; [auto | apply H; exact Hin].
Qed.

