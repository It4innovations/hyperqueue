(** Worker loss never panics, continued.
    [lost_retracting], [process_retracted] and [process_worker_lost] after the release of the lost
    worker's tasks (NoPanicL1.v); [task_failed] for a task that lost its worker ([w = None]: the
    crash limit is reached); [lost_fail_running], [on_remove_worker] and the theorems
    [connect_never_panics] / [worker_loss_never_panics]. *)
From HQ Require Import Base.Prelude Cluster.Types Cluster.Core Cluster.Reactor Cluster.Server Cluster.Sys Cluster.RejHyp Cluster.InvQBase Cluster.InvQTake Cluster.InvDBase Cluster.NoPanicC3 Cluster.ProofsJob Cluster.ProofsStep Cluster.BijBase Cluster.BijCore Cluster.BijHq Cluster.BijSt Cluster.BijReact Cluster.BijFinal Cluster.InvWBase Cluster.InvWCore Cluster.InvWReact Cluster.InvWServer Cluster.InvQInv Cluster.InvQReact Cluster.InvQReact2 Cluster.InvQServer Cluster.InvDSpec Cluster.InvDRem Cluster.InvDReact Cluster.InvBundle Cluster.InvProcsDef Cluster.NoPanicC1 Cluster.NoPanicC2 Cluster.InvWX1 Cluster.InvWX3 Cluster.NoPanicL0 Cluster.NoPanicL1.
From HQ Require Import Cluster.ModelFacts.
From HQ Require Import Cluster.InvWView.
From Coq Require Import ZArith Lia Sorting.Sorted.
Local Open Scope N_scope.
Arguments N.add : simpl never.
Arguments N.sub : simpl never.

Lemma PI_PWc s : PI s -> PWc s.
Proof. intros [_ Hp] w Hw. unfold has_proc. apply (same_ids_find _ _ w Hp). exact Hw. Qed.

Lemma lost_retracting_one s w id s1 r : lost_retracting s w [id] = Ok s1 -> lost_retracting s w (id :: r) = lost_retracting s1 w r.
Proof.
  cbn [lost_retracting]. intros H. destruct (get_task _ id) as [t| |]; cbn [bind] in *; try discriminate.
  destruct (t_state t); try (inversion H; subst; reflexivity).
  destruct (N.eqb w w0); [|inversion H; subst; reflexivity].
  cbv zeta in *. destruct (find_redirect _ id) as [[target rv]|]; [|inversion H; subst; reflexivity].
  destruct (send_worker _ target _) as [s'| |]; cbn [bind] in *; try discriminate. inversion H; subst. reflexivity.
Qed.

Lemma lost_retracting_tot l : forall s w,
  WI (core_of s) -> PI s -> (forall id, In id l -> find_task (c_tasks (core_of s)) id <> None) ->
  exists s', lost_retracting s w l = Ok s'.
Proof.
  induction l as [|id r IH]; intros s w HW HP Hex; [eexists; reflexivity|].
  assert (H1 : exists s1, lost_retracting s w [id] = Ok s1).
  { cbn [lost_retracting]. destruct (find_task (c_tasks (core_of s)) id) as [t|] eqn:Ef; [|exfalso; exact (Hex id (or_introl eq_refl) Ef)].
    rewrite (get_task_ok _ _ _ Ef). cbn [bind].
    destruct (t_state t) eqn:Est; try (eexists; reflexivity).
    destruct (N.eqb w w0); [|eexists; reflexivity]. cbv zeta.
    destruct (find_redirect (c_redirects (core_of s)) id) as [[target rv]|] eqn:Er; [|eexists; reflexivity].
    destruct (WIX_R _ _ _ _ _ HW Er) as (wk & a & p & f & Hw & _).
    match goal with |- exists s1, bind (send_worker ?s0 target ?m) _ = _ => destruct (send_worker_tot s0 target m) as (s1 & Hs1 & _) end.
    { apply (PI_PWc s HP). cbn. rewrite Hw. discriminate. }
    rewrite Hs1. cbn [bind]. eexists; reflexivity. }
  destruct H1 as (s1 & H1). rewrite (lost_retracting_one _ _ _ _ r H1).
  apply IH.
  - eapply lost_retracting_WI; [exact HW | exact H1].
  - eapply R_PI; [eapply lost_retracting_R; exact H1 | exact HP].
  - intros x Hx. pose proof (lost_retracting_scr _ _ _ _ H1) as [_ S].
    destruct (find_task (c_tasks (core_of s)) x) as [tx|] eqn:Ex; [|exfalso; exact (Hex x (or_intror Hx) Ex)].
    destruct (SC_some _ _ _ _ S Ex) as (tx' & Ex' & _). unfold fm in Ex'. congruence.
Qed.

Lemma lost_retracting_keeps l : forall s w s' x tx,
  lost_retracting s w l = Ok s' -> find_task (c_tasks (core_of s)) x = Some tx -> (forall w1, t_state tx <> Retracting w1) ->
  find_task (c_tasks (core_of s')) x = Some tx.
Proof.
  induction l as [|id r IH]; cbn [lost_retracting]; intros s w s' x tx H Hx Hn; [inversion H; subst; exact Hx|].
  apply bind_ok in H as (t & Ht & H). apply get_task_find in Ht.
  destruct (find_task_some _ _ _ Ht) as [_ Hid].
  destruct (t_state t) eqn:Est; try (eapply IH; eassumption).
  destruct (N.eqb w w0); [|eapply IH; eassumption]. cbv zeta in H.
  assert (Hne : tid_eqb x id = false).
  { apply tid_eqb_neq. intros ->. rewrite Ht in Hx. inversion Hx; subst tx. exact (Hn _ Est). }
  destruct (find_redirect _ id) as [[target rv]|].
  - apply bind_ok in H as (s1 & H1 & H). eapply IH; [exact H | | exact Hn].
    rewrite (send_worker_core _ _ _ _ H1). cbn. rewrite find_set_task. cbn [t_id with_state with_inst]. rewrite Hid, Hne. exact Hx.
  - eapply IH; [exact H | | exact Hn]. cbn. rewrite find_set_task. cbn [t_id with_state with_inst]. rewrite Hid, Hne. exact Hx.
Qed.

Lemma retract_states_keeps ids : forall c acc c' acc' x tx,
  retract_states c ids acc = Ok (c', acc') -> find_task (c_tasks c) x = Some tx -> (forall w1, t_state tx <> Prefilled w1) ->
  find_task (c_tasks c') x = Some tx.
Proof.
  induction ids as [|id r IH]; cbn [retract_states]; intros c acc c' acc' x tx H Hx Hn; [inversion H; subst; exact Hx|].
  apply bind_ok in H as (t & Ht & H). apply get_task_find in Ht.
  destruct (find_task_some _ _ _ Ht) as [_ Hid].
  destruct (t_state t) eqn:Est; try discriminate.
  apply bind_ok in H as (wk & _ & H). apply bind_ok in H as (wk' & _ & H).
  eapply IH; [exact H | | exact Hn].
  cbn. rewrite find_set_task. cbn [t_id with_state]. rewrite Hid.
  assert (Hne : tid_eqb x id = false).
  { apply tid_eqb_neq. intros ->. rewrite Ht in Hx. inversion Hx; subst tx. exact (Hn _ Est). }
  rewrite Hne. exact Hx.
Qed.

Lemma process_retracted_keeps s r s' x tx :
  process_retracted s r = Ok s' -> find_task (c_tasks (core_of s)) x = Some tx -> (forall w1, t_state tx <> Prefilled w1) ->
  find_task (c_tasks (core_of s')) x = Some tx.
Proof.
  unfold process_retracted. intros H Hx Hn. destruct r; [inversion H; subst; exact Hx|].
  apply bind_ok in H as ([c' groups] & H1 & H). rewrite (send_all_core _ _ _ H). cbn.
  eapply retract_states_keeps; eassumption.
Qed.

Lemma set_waiting_state_tot s t : HOK (hq_of s) -> active s t -> exists s', set_waiting_state s t = Ok s'.
Proof.
  intros Hok (l & Hl & Ha). unfold set_waiting_state, hq_get_job. unfold jt in Hl.
  destruct (find_job (h_jobs (hq_of s)) (fst t)) as [j|] eqn:Ej; [|discriminate]. cbn in Hl. inversion Hl; subst l.
  unfold hq_of in Ej. rewrite Ej. cbn [bind].
  pose proof (Hok _ (find_job_in _ _ _ Ej)) as Hj.
  destruct Ha as [Ha|Ha]; rewrite Ha; [eexists; reflexivity|].
  unfold Reactor.csub. pose proof (cnt_pos _ _ _ Ha) as Hp. rewrite <- (jok_run _ Hj) in Hp.
  destruct (N.ltb (j_nrun j) 1) eqn:El; [apply N.ltb_lt in El; lia|]. cbn [bind]. eexists; reflexivity.
Qed.

Lemma set_waiting_all_tot ts : forall s, HOK (hq_of s) -> (forall t, In t ts -> active s t) -> exists s', set_waiting_all s ts = Ok s'.
Proof.
  induction ts as [|t r IH]; intros s Hok Ha; [eexists; reflexivity|]. cbn [set_waiting_all].
  destruct (set_waiting_state_tot s t Hok (Ha t (or_introl eq_refl))) as (s1 & H1). rewrite H1. cbn [bind].
  apply IH; [eapply set_waiting_state_ok; eassumption|].
  intros x Hx. apply (proj2 (set_waiting_state_active _ _ _ H1)). apply Ha. right. exact Hx.
Qed.

Lemma process_worker_lost_tot s w running reason :
  HOK (hq_of s) -> (forall t, In t running -> active s t) -> exists s', process_worker_lost s w running reason = Ok s'.
Proof.
  intros Hok Ha. unfold process_worker_lost. destruct (set_waiting_all_tot running s Hok Ha) as (s1 & ->). cbn [bind]. eexists; reflexivity.
Qed.

Lemma abort_tasks_tot s jid ids j :
  HOK (hq_of s) -> find_job (hq_jobs s) jid = Some j -> NoDup ids ->
  (forall t, In t ids -> fst t = jid /\ jactive (jt_find (j_tasks j) (snd t))) ->
  exists s', abort_tasks s jid ids = Ok s'.
Proof.
  intros H Ef Hnd Hin. unfold abort_tasks. destruct ids as [|i0 ir]; [eexists; reflexivity|].
  pose proof (find_job_id _ _ _ Ef) as Hid.
  unfold hq_get_job. unfold hq_jobs in Ef. rewrite Ef. cbn [bind].
  pose proof (H _ (find_job_in _ _ _ Ef)) as Hj.
  destruct (mark_tasks_tot JA 206 (i0 :: ir) (or_intror eq_refl) j 0 (JOK_JOKx _ JA Hj) Hnd) as (j1 & H1).
  { intros t Ht. rewrite Hid. apply Hin. exact Ht. }
  rewrite H1. cbn [bind].
  destruct (mark_tasks_ok JA 206 (i0 :: ir) (or_intror eq_refl) _ _ 0 (JOK_JOKx _ JA Hj) H1) as ([Ss R F X C A] & O1 & O2 & O3 & O4 & Hact).
  match goal with |- exists s', check_termination ?st jid = _ => set (s2 := st) end.
  match goal with s2 := emit (hq_set_job s ?jj) _ |- _ => set (j2 := jj) in * end.
  assert (Hj2 : JOK j2).
  { subst j2. cbn [jst_eqb] in *. constructor; cbn; auto; try lia.
    intros Hcm. rewrite O2 in Hcm. destruct (jok_completed _ Hj Hcm) as (_ & Hw & Hr).
    assert (i0 :: ir <> []) as Hne by discriminate. specialize (Hact Hne). lia. }
  apply (check_termination_tot s2 jid j2).
  - subst s2. rewrite !emit_hq. apply hq_set_job_ok; assumption.
  - subst s2. change (find_job (hq_jobs (hq_set_job s j2)) jid = Some j2). rewrite find_job_hq_set.
    replace (j_id j2) with jid by (subst j2; cbn; congruence). rewrite N.eqb_refl. reflexivity.
Qed.

Lemma active_find_job s t : active s t -> exists j, find_job (hq_jobs s) (fst t) = Some j /\ jactive (jt_find (j_tasks j) (snd t)).
Proof.
  intros (l & Hl & Ha). unfold jt in Hl. unfold hq_jobs. change (h_jobs (s_hq (fst s))) with (h_jobs (hq_of s)).
  destruct (find_job (h_jobs (hq_of s)) (fst t)) as [j|]; [|discriminate]. cbn in Hl. inversion Hl; subst l. eauto.
Qed.

Lemma process_task_failed_tot s t aborted k :
  HOK (hq_of s) -> NoDup aborted -> ~ In t aborted -> active s t ->
  (forall x, In x aborted -> fst x = fst t /\ active s x) ->
  exists s' ids, process_task_failed s t aborted k = Ok (s', ids).
Proof.
  intros Hok Hnd Hni Hat Hab. unfold process_task_failed.
  destruct (active_find_job _ _ Hat) as (j & Ej & _).
  destruct (abort_tasks_tot s (fst t) aborted j Hok Ej Hnd) as (s1 & H1).
  { intros x Hx. destruct (Hab x Hx) as [Hf Hx']. split; [exact Hf|].
    destruct (active_find_job _ _ Hx') as (jx & Ejx & Hax). rewrite Hf, Ej in Ejx. inversion Ejx; subst jx. exact Hax. }
  rewrite H1. cbn [bind].
  pose proof (abort_tasks_ok _ _ _ _ Hok H1) as Hok1.
  destruct (abort_tasks_active _ _ _ _ H1) as [_ A1].
  assert (Hat1 : active s1 t) by (apply A1; split; assumption).
  destruct (active_find_job _ _ Hat1) as (j1 & Ej1 & Ha1).
  unfold hq_get_job at 1. unfold hq_jobs in Ej1. rewrite Ej1. cbn [bind].
  pose proof (Hok1 _ (find_job_in _ _ _ Ej1)) as Hj1. pose proof (find_job_id _ _ _ Ej1) as Hid1.
  assert (Hx : exists jx, (match jt_find (j_tasks j1) (snd t) with
             | Some JR => do nr <- Reactor.csub (j_nrun j1) 1 203;
                 Ok (job_upd j1 (jt_set (j_tasks j1) (snd t) JX) nr (j_nfin j1) (j_nfail j1 + 1) (j_ncanc j1) (j_nabort j1) (j_completed j1))
             | Some JW => Ok (job_upd j1 (jt_set (j_tasks j1) (snd t) JX) (j_nrun j1) (j_nfin j1) (j_nfail j1 + 1) (j_ncanc j1) (j_nabort j1) (j_completed j1))
             | Some _ => Panic 204
             | None => Panic 201
             end) = Ok jx /\ JOK jx /\ j_id jx = fst t).
  { destruct Hj1 as [Ss R F X C A Cm].
    destruct Ha1 as [Ef|Ef]; rewrite Ef; pose proof (fun v => cnt_set_some _ _ _ JX v Ss Ef) as HC.
    - eexists. split; [reflexivity|]. split; [|exact Hid1].
      constructor; cbn; auto using jt_set_sorted;
        try (match goal with |- _ = cnt _ ?v => specialize (HC v); cbn [jst_eqb] in HC; lia end).
      intros Hcm. destruct (Cm Hcm) as (_ & Hw & _). pose proof (HC JW) as Hx. cbn [jst_eqb] in Hx. lia.
    - unfold Reactor.csub. pose proof (cnt_pos _ _ _ Ef) as Hp. rewrite <- R in Hp.
      destruct (N.ltb (j_nrun j1) 1) eqn:El; [apply N.ltb_lt in El; lia|]. cbn [bind].
      eexists. split; [reflexivity|]. split; [|exact Hid1].
      constructor; cbn; auto using jt_set_sorted;
        try (match goal with |- _ = cnt _ ?v => specialize (HC v); cbn [jst_eqb] in HC; lia end).
      intros Hcm. destruct (Cm Hcm) as (_ & _ & Hr). pose proof (HC JR) as Hx. cbn [jst_eqb] in Hx. lia. }
  destruct Hx as (jx & -> & Hjx & Hidx). cbn [bind].
  set (sm := emit (hq_set_job s1 jx) (OEv (EvFailed t k))).
  assert (Hokm : HOK (hq_of sm)) by (subst sm; rewrite emit_hq; apply hq_set_job_ok; assumption).
  assert (Ejm : find_job (hq_jobs sm) (fst t) = Some jx).
  { subst sm. change (find_job (hq_jobs (hq_set_job s1 jx)) (fst t) = Some jx). rewrite find_job_hq_set, Hidx, N.eqb_refl. reflexivity. }
  destruct (check_termination_tot sm (fst t) jx Hokm Ejm) as (s2 & H2). rewrite H2. cbn [bind].
  pose proof (check_termination_ok _ _ _ Hokm H2) as Hok2.
  destruct (check_termination_jt _ _ _ H2) as [_ J2].
  assert (Ej2 : exists j2, find_job (h_jobs (s_hq (fst s2))) (fst t) = Some j2).
  { pose proof (J2 (fst t)) as X. unfold jt in X. unfold hq_jobs in Ejm. change (h_jobs (s_hq (fst sm))) with (h_jobs (hq_of sm)) in Ejm. rewrite Ejm in X.
    change (h_jobs (s_hq (fst s2))) with (h_jobs (hq_of s2)). destruct (find_job (h_jobs (hq_of s2)) (fst t)) as [j2|]; [eauto | discriminate]. }
  destruct Ej2 as (j2 & Ej2). unfold hq_get_job. rewrite Ej2. cbn [bind].
  destruct (j_maxfails j2) as [mf|]; [|eexists; eexists; reflexivity].
  destruct (N.ltb mf (j_nfail j2)); [|eexists; eexists; reflexivity].
  pose proof (Hok2 _ (find_job_in _ _ _ Ej2)) as Hj2.
  destruct (abort_tasks_tot s2 (fst t) (non_finished_task_ids j2) j2 Hok2 Ej2) as (s3 & H3).
  { apply nodup_non_finished. exact (jok_sorted _ Hj2). }
  { intros x Hx. apply (non_finished_in _ _ (jok_sorted _ Hj2)) in Hx. destruct Hx as [A B]. split; [|exact B].
    rewrite A. eapply find_job_id. exact Ej2. }
  rewrite H3. cbn [bind]. eexists; eexists; reflexivity.
Qed.

Lemma collect_consumers_inv (Q : tid -> Prop) fuel : forall ts frontier acc r,
  (forall x tx y, find_task ts x = Some tx -> In y (t_consumers tx) -> Q y) ->
  (forall x, In x acc -> Q x) ->
  collect_consumers fuel ts frontier acc = Ok r -> forall x, In x r -> Q x.
Proof.
  induction fuel as [|k IH]; intros ts frontier acc r HQ Ha H; destruct frontier as [|id rest]; cbn [collect_consumers] in H;
    try (inversion H; subst; exact Ha).
  apply bind_ok in H as (t & Ht & H). apply get_task_find in Ht.
  eapply IH; [exact HQ | | exact H].
  intros x Hx. apply tid_insert_all_iff in Hx. destruct Hx as [Hx|Hx]; [|apply Ha; exact Hx].
  apply filter_In in Hx. destruct Hx as [Hx _]. eapply HQ; eassumption.
Qed.

Lemma collect_consumers_SL fuel : forall ts frontier acc r,
  SL acc -> collect_consumers fuel ts frontier acc = Ok r -> SL r.
Proof.
  induction fuel as [|k IH]; intros ts frontier acc r Hs H; destruct frontier as [|id rest]; cbn [collect_consumers] in H;
    try (inversion H; subst; exact Hs).
  apply bind_ok in H as (t & _ & H). eapply IH; [|exact H]. apply tinsall_SL. exact Hs.
Qed.

Lemma recursive_consumers_inv (Q : tid -> Prop) ts id t csm :
  (forall x tx y, find_task ts x = Some tx -> In y (t_consumers tx) -> Q y) ->
  find_task ts id = Some t -> recursive_consumers ts t = Ok csm -> forall x, In x csm -> Q x.
Proof.
  intros HQ Hf H. unfold recursive_consumers in H. eapply collect_consumers_inv; [exact HQ | | exact H].
  intros x Hx. apply tid_insert_all_iff in Hx. destruct Hx as [Hx|[]]. eapply HQ; eassumption.
Qed.

Lemma recursive_consumers_nodup ts t csm : recursive_consumers ts t = Ok csm -> NoDup csm.
Proof.
  intros H. unfold recursive_consumers in H. apply SL_NoDup. eapply collect_consumers_SL; [|exact H]. apply tinsall_SL. apply SL_nil.
Qed.

Lemma DI_consumer_waits m x tx y : DI m -> m x = Some tx -> In y (t_consumers tx) ->
  exists ty n, m y = Some ty /\ t_state ty = Waiting n /\ n <> 0.
Proof.
  intros D Ex Hy. pose proof (dx_id _ _ D _ _ Ex) as Hidx.
  destruct (dx_cons _ _ D _ _ _ Ex Hy) as (ct & Ec & Wc & Ic).
  pose proof (DI_cnt _ _ _ D Ec) as C. unfold is_waiting in Wc. destruct (t_state ct) as [n| | | | | |] eqn:Est; try discriminate.
  exists ct, n. split; [exact Ec|]. split; [exact Est|].
  assert (Hp : (1 <= dcount m ct)%nat) by (eapply flen_pos; [exact Ic | apply inm_true; eauto]). lia.
Qed.

Lemma remove_waiting_consumers_tot_ex ex X l : forall c,
  lax ex -> (forall x, In x l -> ex x = None) ->
  CS c -> QI ex [] c -> DX X (fm c) -> NoDup l -> incl l X ->
  (forall x, In x l -> exists tx, find_task (c_tasks c) x = Some tx /\ is_waiting tx = true) ->
  exists c', remove_waiting_consumers c l = Ok c'.
Proof.
  induction l as [|id r IH]; intros c Hlax Hex Hs V D Hnd Hinc Hpre; [eexists; reflexivity|].
  inversion Hnd as [|? ? Hni Hnd']; subst. cbn [remove_waiting_consumers].
  destruct (Hpre id (or_introl eq_refl)) as (t & Hf & Hw).
  destruct (remove_task_tot ex X c id t V D Hf (fun _ => Hex id (or_introl eq_refl))) as (c1 & stt & H1).
  rewrite H1. cbn [bind].
  rewrite (remove_task_state _ _ _ _ _ H1 Hf). unfold is_waiting in Hw. destruct (t_state t) eqn:Est; try discriminate.
  destruct (remove_task_QI ex [] [] c id c1 _ Hlax V H1) as (V1 & S1 & G1 & N1 & R1 & _).
  { intros t0 Ht0. left. rewrite Hf in Ht0. inversion Ht0; subst t0. unfold is_waiting. rewrite Est. reflexivity. }
  { intros x []. }
  destruct (remove_task_shrinks _ _ _ _ Hs H1) as [Sh _].
  destruct (remove_task_DX X c id c1 _ (CS_sorted _ Hs) D (Hinc id (or_introl eq_refl)) H1) as (_ & D1 & _).
  apply (IH c1 Hlax (fun x Hx => Hex x (or_intror Hx)) (shr_sorted _ _ _ Sh) V1 D1 Hnd').
  - intros x Hx. apply Hinc. right. exact Hx.
  - intros x Hx. destruct (Hpre x (or_intror Hx)) as (tx & Hfx & Hwx).
    assert (Hp : present (keys c1) x).
    { apply (shr_dom _ _ _ Sh). split; [apply find_task_present; eauto | intros [<-|[]]; contradiction]. }
    apply find_task_present in Hp. destruct Hp as (tx1 & Etx1). exists tx1. split; [exact Etx1|].
    destruct (S1 _ _ Etx1) as (t0 & Ht0 & Hst). rewrite Hfx in Ht0. inversion Ht0; subst t0.
    unfold is_waiting in *. rewrite <- Hst. exact Hwx.
Qed.


(** * The second phase of [task_failed]
    It starts from a core [c1] with the tasks of the state in which the failing task is in no
    worker set and, unless it is waiting, in no queue. *)
Lemma task_failed_tail_tot s (w : option wid) id k t c1 ex1 :
  HOK (hq_of s) -> CB s -> GD (core_of s) -> InvWX1.J (core_of s) -> PI s ->
  find_task (c_tasks (core_of s)) id = Some t ->
  c_tasks c1 = c_tasks (core_of s) -> wids c1 = wids (core_of s) -> Dm (core_of s) c1 ->
  WIX (xadd InvWCore.x0 id) c1 -> lax ex1 -> QI ex1 [] c1 -> (forall x, x <> id -> ex1 x = None) ->
  (w = None /\ t_state t = Waiting 0 /\ ex1 id = None) \/
  (w <> None /\ match t_state t with Waiting _ | Finished => False | _ => True end /\ ex1 id = Some Nowhere) ->
  exists s',
    (do csm <- recursive_consumers (c_tasks c1) t;
     do c2 <- remove_waiting_consumers c1 csm;
     do (c3, stt) <- remove_task c2 id;
     do _ <- match w, stt with
             | Some _, (Assigned _ _ | Prefilled _ | Retracting _ | Running _ _ | RunningMN _) => Ok tt
             | None, Waiting _ => Ok tt
             | _, _ => Panic 170
             end;
     do (s1, cancel_ids) <- process_task_failed (st_core s c3) id csm k;
     match cancel_ids with [] => Ok s1 | _ => on_cancel_tasks s1 cancel_ids end) = Ok s' /\
    tsub (c_tasks (core_of s)) (c_tasks (core_of s')).
Proof.
  intros Hok HC [Hts D] HJ HP Ef T1 Ew1 Hdm W1 Hlax V1 Hex1 Hmode.
  destruct (find_task_some _ _ _ Ef) as [Hin Hid].
  set (c := core_of s) in *.
  rewrite T1.
  assert (W : WFc (c_tasks c)) by (eapply DX_WFc; exact D).
  destruct (recursive_consumers_tot _ id t W Ef) as (csm & Hcs). rewrite Hcs. cbn [bind].
  pose proof (recursive_consumers_nodup _ _ _ Hcs) as Ndc.
  assert (HQ : forall x, In x csm -> exists tx n, find_task (c_tasks c) x = Some tx /\ t_state tx = Waiting n /\ n <> 0).
  { eapply (recursive_consumers_inv _ (c_tasks c) id t csm); [|exact Ef | exact Hcs].
    intros x tx y Hx Hy. exact (DI_consumer_waits (fm c) x tx y D Hx Hy). }
  assert (Hnid : ~ In id csm).
  { intros Hc. destruct (HQ id Hc) as (tx & n & Hx & Hs & Hn). rewrite Ef in Hx. inversion Hx; subst tx.
    destruct Hmode as [(_ & Est & _) | (_ & Hpl & _)]; rewrite Hs in *; [congruence | exact Hpl]. }
  assert (Hjob : forall x, In x csm -> fst x = fst id).
  { rewrite <- Hid. eapply recursive_consumers_job; [exact (cb_d _ HC) | exact Hin | exact Hcs]. }
  assert (Hdom : forall y, In y (t_consumers t) -> find_task (c_tasks c) y <> None).
  { intros y Hy. destruct (dx_cons _ _ D _ _ _ Ef Hy) as (ct & Ec & _). unfold fm in Ec. congruence. }
  destruct (recursive_consumers_closed _ t csm W (dx_nc _ _ D _ _ Ef) Hdom Hcs) as [I1 I2].
  pose proof (closed_with_root (fm c) csm id t Ef I1 I2) as Hcl.
  set (X := csm ++ [id]) in *.
  assert (D1 : DX X (fm c)) by (apply DX_start; [exact D | exact Hcl]).
  assert (Hi1 : incl csm X) by (intros x Hx; apply in_app_iff; left; exact Hx).
  assert (Hi2 : In id X) by (apply in_app_iff; right; left; reflexivity).
  pose proof (cb_s _ HC) as Hs. fold c in Hs.
  assert (Ek : keys c1 = keys c) by (unfold keys; rewrite T1; reflexivity).
  assert (Hs1 : CS c1) by (eapply CS_keys; [exact Ek | exact Hs]).
  assert (Hts1 : FrameGen.TS c1) by (unfold FrameGen.TS in *; rewrite T1; exact Hts).
  assert (D1' : DX X (fm c1)) by (unfold fm; rewrite T1; exact D1).
  destruct (remove_waiting_consumers_tot_ex ex1 X csm c1 Hlax) as (c2 & H2); try assumption.
  { intros x Hx. apply Hex1. intros ->. contradiction. }
  { intros x Hx. destruct (HQ x Hx) as (tx & n & Hfx & Hsx & _). exists tx. rewrite T1. split; [exact Hfx|]. unfold is_waiting. rewrite Hsx. reflexivity. }
  rewrite H2. cbn [bind].
  destruct (remove_waiting_consumers_shrinks _ _ _ Hs1 H2) as [Sh2 _].
  destruct (remove_waiting_consumers_QI _ [] csm c1 c2 Hlax V1 H2) as (V2 & S2 & N2 & _ & G2).
  destruct (remove_waiting_consumers_DX X csm _ _ Hts1 D1' Hi1 H2) as (T2 & D2 & ND2 & _ & SD2).
  assert (Hf2 : exists t2, find_task (c_tasks c2) id = Some t2 /\ t_state t2 = t_state t).
  { assert (Hp : present (keys c2) id) by (apply (shr_dom _ _ _ Sh2); split; [rewrite Ek; apply find_task_present; eauto | exact Hnid]).
    apply find_task_present in Hp. destruct Hp as (t2 & E2). exists t2. split; [exact E2|].
    destruct (S2 _ _ E2) as (t0 & Ht0 & Hst). rewrite T1 in Ht0. fold c in Ef. rewrite Ef in Ht0. inversion Ht0; subst t0. symmetry. exact Hst. }
  destruct Hf2 as (t2 & Ef2 & Est2).
  destruct (remove_task_tot ex1 X c2 id t2 V2 D2 Ef2) as (c3 & stt & H3).
  { intros E0. destruct Hmode as [(_ & _ & E) | (_ & Hpl & _)]; [exact E|]. rewrite <- Est2, E0 in Hpl. destruct Hpl. }
  rewrite H3. cbn [bind].
  pose proof (remove_task_state _ _ _ _ _ H3 Ef2) as Estt. rewrite Est2 in Estt. subst stt.
  assert (Hm : (match w, t_state t with
                | Some _, (Assigned _ _ | Prefilled _ | Retracting _ | Running _ _ | RunningMN _) => Ok tt
                | None, Waiting _ => Ok tt
                | _, _ => Panic 170
                end) = Ok tt).
  { destruct Hmode as [(-> & Est & _) | (Hw & Hpl & _)]; [rewrite Est; reflexivity|].
    destruct w; [|congruence]. destruct (t_state t); try reflexivity; destruct Hpl. }
  rewrite Hm. cbn [bind]. clear Hm.
  destruct (remove_task_shrinks _ _ _ _ (shr_sorted _ _ _ Sh2) H3) as [Sh3 _].
  assert (Hpre : forall t0, find_task (c_tasks c2) id = Some t0 -> is_waiting t0 = true \/
            (exp_place ex1 (c_redirects c2) id (t_state t0) = Nowhere /\ find_redirect (c_redirects c2) id = None)).
  { intros t0 Ht0. eapply nowhere_pre; [exact V2 | exact Ht0 |].
    destruct Hmode as [(_ & Est & _) | (_ & _ & E)]; [left | right; exact E].
    rewrite Ef2 in Ht0. inversion Ht0; subst t0. unfold is_waiting. rewrite Est2, Est. reflexivity. }
  destruct (remove_task_QI ex1 [] [] _ _ _ _ Hlax V2 H3 Hpre) as (V3x & S3 & G3 & N3 & _); [auto|].
  assert (V3 : QI none [] c3).
  { unfold QI in *. eapply QV_ext; [exact V3x|]. intros x t0 Hx. symmetry. apply Hex1. intros ->. congruence. }
  destruct (remove_task_DX X _ _ _ _ T2 D2 Hi2 H3) as (T3 & D3 & ND3 & K3 & SD3).
  pose proof (shrinks_trans _ _ _ _ _ Sh2 Sh3) as Sh23. rewrite Ek in Sh23.
  assert (S23 : tsub (c_tasks c) (c_tasks c3)).
  { eapply tsub_trans; [|exact S3]. intros x tx Hx. destruct (S2 _ _ Hx) as (t0 & Ht0 & Hst). rewrite T1 in Ht0. eauto. }
  assert (Hact : forall x, present (keys c) x -> active (st_core s c3) x).
  { intros x Hp. apply (active_same s (st_core s c3)); [intros; reflexivity|]. apply (cb_b _ HC). exact Hp. }
  destruct (process_task_failed_tot (st_core s c3) id csm k) as (s1 & cids & H4).
  { exact Hok. } { exact Ndc. } { exact Hnid. }
  { apply Hact. apply find_task_present. eauto. }
  { intros x Hx. split; [apply Hjob; exact Hx|]. apply Hact. destruct (HQ x Hx) as (tx & _ & Hfx & _). apply find_task_present. eauto. }
  rewrite H4. cbn [bind].
  destruct (process_task_failed_active (st_core s c3) id csm k s1 cids Hok H4) as (C4 & A4 & J4 & N4).
  unfold core_same in C4. cbn [core_of st_core with_core s_core fst] in C4.
  destruct cids as [|c0 cr] eqn:Ecid.
  { exists s1. split; [reflexivity|]. rewrite C4. exact S23. }
  rewrite <- Ecid in *. assert (Hne : cids <> []) by (rewrite Ecid; discriminate). clear Ecid.
  assert (Ks1 : K s1 = keys c3) by (unfold K; rewrite C4; reflexivity).
  assert (Hs3 : CS c3) by exact (shr_sorted _ _ _ Sh23).
  assert (Hd3 : KD (K s1)) by (rewrite Ks1; eapply shrinks_KD; [exact Sh23 | exact (cb_d _ HC)]).
  assert (W3 : WI c3).
  { pose proof (remove_waiting_consumers_WIX _ _ _ _ W1 Hs1 H2) as W2.
    assert (W3x : WIX (xadd InvWCore.x0 id) c3) by (eapply remove_task_WIX; [exact W2 | exact (shr_sorted _ _ _ Sh2) | exact H3 | left; xs]).
    destruct (remove_task_view _ _ _ _ (shr_sorted _ _ _ Sh2) H3) as (_ & _ & _ & _ & Tv).
    eapply (C_show0 _ _ W3x InvWCore.x0 id); [xs | xs | left]. rewrite Tv. unfold tset. rewrite tid_eqb_refl. reflexivity. }
  assert (G3' : GD c3).
  { split; [exact T3|]. eapply DX_end; [exact D3|]. intros x Hx. apply in_app_iff in Hx.
    destruct Hx as [Hx|[<-|[]]]; [apply K3, ND2; exact Hx | exact ND3]. }
  assert (J3 : InvWX1.J c3).
  { eapply J_R; [exact HJ|]. eapply InvWX1.R_trans; [apply (InvWX1.R_tasks c c1 T1 Hdm)|].
    eapply InvWX1.R_trans; [eapply remove_waiting_consumers_R; exact H2 | eapply remove_task_R; exact H3]. }
  apply J_MNE_RWA in J3. destruct J3 as (Hmne & Hrwa & _).
  assert (HP1 : PI s1).
  { eapply R_PI; [|exact HP]. eapply NoPanicL0.R_trans; [apply (R_core s c3) | apply R_CP; eapply process_task_failed_CP; exact H4].
    eapply Rc_trans; [intros _; exact Ew1|].
    eapply Rc_trans; [intros Hws; eapply remove_waiting_consumers_wids; [exact Hws | exact H2] | intros Hws; eapply remove_task_wids; [exact Hws | exact H3]]. }
  assert (Hcl3 : forall x t0 y, find_task (c_tasks (core_of s1)) x = Some t0 -> In y cids -> fst x = fst y -> In x cids \/ is_waiting t0 = true).
  { intros x t0 y Hx Hy Hf. left. rewrite C4 in Hx.
    apply N4; [exact Hne | rewrite Hf; apply J4; exact Hy | | | ].
    - apply Hact. apply find_task_present. destruct (S23 _ _ Hx) as (t1 & Hx1 & _). eauto.
    - intros Hc. rewrite (N3 _ (G2 _ Hc)) in Hx. discriminate.
    - intros ->. congruence. }
  assert (V3' : QI none [] (core_of s1)) by (rewrite C4; exact V3).
  destruct (on_cancel_tasks_tot s1 cids) as (s' & H5).
  { rewrite C4. exact W3. } { exact V3'. } { rewrite C4. exact G3'. }
  { rewrite C4. exact Hs3. } { exact Hd3. }
  { rewrite C4. exact Hmne. } { rewrite C4. exact Hrwa. }
  { apply PI_PWc. exact HP1. }
  { eapply process_task_failed_nodup; [|exact H4]. exact Hok. }
  { exact Hcl3. }
  exists s'. split; [destruct cids; [congruence | exact H5]|].
  destruct (on_cancel_tasks_QI [] s1 cids s' V3' Hd3 Hcl3 H5) as (_ & S5 & _).
  eapply tsub_trans; [|exact S5]. rewrite C4. exact S23.
Qed.
Theorem task_failed_none_tot s id k t :
  HOK (hq_of s) -> CB s -> WI (core_of s) -> QI none [] (core_of s) -> GD (core_of s) -> InvWX1.J (core_of s) -> PI s ->
  find_task (c_tasks (core_of s)) id = Some t -> t_state t = Waiting 0 ->
  exists s', task_failed s None id k = Ok s' /\ tsub (c_tasks (core_of s)) (c_tasks (core_of s')).
Proof.
  intros Hok HC HW V HG HJ HP Ef Est.
  unfold task_failed. cbv zeta. rewrite Ef.
  set (c := core_of s) in *.
  destruct (get_rq_tot (c_rqs c) (t_rq t)) as (rq & ->).
  { rewrite <- (qv_len _ _ _ _ _ _ V). exact (qv_rq _ _ _ _ _ _ V _ _ Ef). }
  cbn [bind].
  assert (Hw : is_waiting t = true) by (unfold is_waiting; rewrite Est; reflexivity). rewrite Hw. cbn [bind].
  apply (task_failed_tail_tot s None id k t c none); try assumption; try reflexivity.
  - intros x Hx. exact Hx.
  - eapply C_hide; [exact HW | exact Ef | left; rewrite Est; reflexivity].
  - apply lax_none.
  - left. auto.
Qed.

(** * The invariants that hold between the phases of [on_remove_worker] *)
Record LI (s : st) : Prop := mkLI {
  li_ok : HOK (hq_of s);
  li_cb : CB s;
  li_wi : WI (core_of s);
  li_qi : QI none [] (core_of s);
  li_gd : GD (core_of s);
  li_j : InvWX1.J (core_of s);
  li_pi : PI s
}.

Lemma LI_task_failed s id k s' : LI s -> task_failed s None id k = Ok s' -> LI s'.
Proof.
  intros [Hok HC HW V HG HJ HP] H. constructor.
  - eapply task_failed_ok; eassumption.
  - eapply task_failed_CB; eassumption.
  - eapply task_failed_WI; [exact Hok | exact HC | exact HW | intros X; exfalso; apply X; reflexivity | exact H].
  - eapply task_failed_QI; eassumption.
  - exact (proj1 (task_failed_RL _ _ _ _ _ HG H)).
  - eapply J_R; [exact HJ | eapply InvWX1.task_failed_R; exact H].
  - eapply R_PI; [eapply NoPanicL0.task_failed_R; exact H | exact HP].
Qed.

Lemma LI_crash s id t n : LI s -> find_task (c_tasks (core_of s)) id = Some t ->
  LI (st_core s (upd_task (core_of s) (with_crash t n))).
Proof.
  intros [Hok HC HW V HG HJ HP] Ef. destruct (find_task_some _ _ _ Ef) as [Hin Hid]. constructor.
  - exact Hok.
  - eapply CB_same; [| |exact HC]; [|reflexivity].
    unfold K. cbn. apply (upd_task_frame (core_of s) id t); [exact (cb_s _ HC) | exact Ef | reflexivity | reflexivity].
  - change (WI (upd_task (core_of s) (with_crash t n))). eapply C_same; [exact HW | exact Ef | exact Hid | reflexivity].
  - cbn [core_of st_core with_core s_core fst]. unfold QI in *. cbn [c_tasks c_queues c_redirects c_rqs upd_task with_tasks].
    eapply QV_task0; [exact V | exact Ef | exact Hid | reflexivity | reflexivity | reflexivity | reflexivity | |].
    + intros v Hv. destruct (qv_red _ _ _ _ _ _ V _ _ Hv) as (En & t0 & w & Hf0 & Hw). rewrite Ef in Hf0. inversion Hf0; subst t0. split; [exact En | exists w; exact Hw].
    + intros Hfin. eapply qv_fin; eassumption.
  - apply (RL_scr (core_of s)); [exact HG|]. cbn.
    eapply (scr_upd _ (core_of s) _ id t); [reflexivity | exact Ef | reflexivity | edges | left; reflexivity].
  - eapply J_R; [exact HJ|]. cbn.
    eapply (R_set_same _ _ (with_crash t n) t); [reflexivity | apply Dm_eq; reflexivity | exact Hin | reflexivity | reflexivity].
  - eapply R_PI; [|exact HP]. apply R_core. apply Rc_same. reflexivity.
Qed.

Lemma lost_fail_running_tot l : forall s reason, LI s ->
  (forall id t, In id l -> find_task (c_tasks (core_of s)) id = Some t -> t_state t = Waiting 0) ->
  exists s', lost_fail_running s reason l = Ok s'.
Proof.
  induction l as [|id r IH]; intros s reason HL Hrun; [eexists; reflexivity|]. cbn [lost_fail_running].
  assert (Hrest : forall x tx, In x r -> find_task (c_tasks (core_of s)) x = Some tx -> t_state tx = Waiting 0)
    by (intros x tx Hx; apply Hrun; right; exact Hx).
  destruct (find_task (c_tasks (core_of s)) id) as [t|] eqn:Ef; [|apply IH; assumption].
  pose proof (Hrun id t (or_introl eq_refl) Ef) as Est.
  destruct (find_task_some _ _ _ Ef) as [_ Hid].
  assert (Hfail : forall s0 t0 k, LI s0 -> find_task (c_tasks (core_of s0)) id = Some t0 -> t_state t0 = Waiting 0 ->
            (forall x tx, In x r -> find_task (c_tasks (core_of s0)) x = Some tx -> t_state tx = Waiting 0) ->
            exists s', (do s1 <- task_failed s0 None id k; lost_fail_running s1 reason r) = Ok s').
  { intros s0 t0 k HL0 Ef0 Est0 Hr0. destruct HL0 as [Hok HC HW V HG HJ HP].
    destruct (task_failed_none_tot s0 id k t0 Hok HC HW V HG HJ HP Ef0 Est0) as (s1 & H1 & S1). rewrite H1. cbn [bind].
    apply IH; [eapply LI_task_failed; [constructor; eassumption | exact H1]|].
    intros x tx Hx Hfx. destruct (S1 _ _ Hfx) as (tx0 & Hfx0 & Hst). rewrite <- Hst. eapply Hr0; eassumption. }
  assert (Hcr : forall n, LI (st_core s (upd_task (core_of s) (with_crash t n))) /\
            find_task (c_tasks (core_of (st_core s (upd_task (core_of s) (with_crash t n))))) id = Some (with_crash t n) /\
            (forall x tx, In x r -> find_task (c_tasks (core_of (st_core s (upd_task (core_of s) (with_crash t n))))) x = Some tx -> t_state tx = Waiting 0)).
  { intros n. split; [eapply LI_crash; eassumption|]. cbn [core_of st_core with_core s_core fst upd_task with_tasks c_tasks]. split.
    - rewrite find_set_task. cbn [t_id with_crash]. rewrite Hid, tid_eqb_refl. reflexivity.
    - intros x tx Hx Hfx. rewrite find_set_task in Hfx. cbn [t_id with_crash] in Hfx. rewrite Hid in Hfx.
      destruct (tid_eqb x id); [inversion Hfx; subst tx; exact Est | eapply Hrest; eassumption]. }
  destruct (t_climit t) eqn:Ecl.
  - eapply Hfail; eassumption.
  - destruct (reason_is_failure reason); [|apply IH; assumption].
    unfold increment_crash_counter. rewrite Ecl. destruct (Hcr (t_crash t + 1)) as (L1 & F1 & R1).
    destruct (N.leb n (t_crash (with_crash t (t_crash t + 1)))); [eapply Hfail; [exact L1 | exact F1 | exact Est | exact R1] | apply IH; assumption].
  - destruct (reason_is_failure reason); [|apply IH; assumption].
    unfold increment_crash_counter. rewrite Ecl. destruct (Hcr (t_crash t + 1)) as (L1 & F1 & R1). apply IH; assumption.
Qed.

Lemma perm_of_set_tasks order ts x : perm_of_set order (map t_id ts) = true -> In x order -> find_task ts x <> None.
Proof.
  intros Hp Hx. pose proof (perm_of_set_mem _ _ _ Hp Hx) as Hm. apply tid_mem_In in Hm.
  intros Hn. apply find_task_none in Hn. contradiction.
Qed.

Theorem on_remove_worker_np s w reason a p t :
  LI s -> find_proc (s_procs (fst s)) w <> None -> is_panic (on_remove_worker s w reason a p t) = false.
Proof.
  intros [Hok HC HW V HG HJ HP] Hproc. rewrite on_remove_worker_eq.
  set (c := core_of s) in *.
  destruct HP as [Hws Hpid].
  assert (Hfw : find_worker (c_workers c) w <> None) by (apply (same_ids_find _ _ w Hpid); exact Hproc).
  destruct (find_worker (c_workers c) w) as [wk|] eqn:Hw; [|congruence]. clear Hfw.
  assert (Hmnd : NoPanicL1.MND c) by (apply J_MNE_RWA in HJ; exact (proj2 (proj2 HJ))).
  pose proof (cb_s _ HC) as Hs.
  apply np_bind; [exact (release_np c w wk a p HW V Hmnd Hw)|].
  intros [[c2 running] retracted] Hr.
  destruct (release_post c w wk a p c2 running retracted HW V Hs HJ Hw Hr) as [W2 V2 E2 Ndr Hpf Hrun S2 Jx2 Wk2].
  unfold after_release. destruct (negb (perm_of_set t (map t_id (c_tasks c2)))) eqn:Ep; [reflexivity|]. apply negb_false_iff in Ep.
  set (s0 := (with_procs (fst s) (del_proc (s_procs (fst s)) w), snd s) : st) in *.
  set (s2 := st_core s0 c2) in *.
  assert (Hok2 : HOK (hq_of s2)) by exact Hok.
  assert (HC2 : CB s2) by (eapply CB_same; [exact E2 | reflexivity | exact HC]).
  assert (HG2 : GD c2) by exact (proj1 (RL_scr _ _ HG S2)).
  assert (HP2 : PI s2).
  { split.
    - eapply WS_eq; [exact Wk2|]. unfold WS, wids. cbn. apply del_worker_sorted. exact Hws.
    - transitivity (wids (with_workers c (del_worker (c_workers c) w))); [|symmetry; exact Wk2].
      unfold pids, wids. cbn. apply del_both. exact Hpid. }
  apply np_bind.
  { apply ex_np. apply lost_retracting_tot; [exact W2 | exact HP2|]. intros id Hid. eapply perm_of_set_tasks; eassumption. }
  intros s3 H3.
  pose proof (lost_retracting_WI t s2 w s3 W2 H3) as W3.
  assert (V3 : QI (exL Ready retracted none) [] (core_of s3)) by (eapply lost_retracting_QI; [|exact H3]; exact V2).
  pose proof (lost_retracting_K _ _ _ _ (cb_s _ HC2) H3) as K3. pose proof (lost_retracting_same _ _ _ _ H3) as Q3.
  assert (HC3 : CB s3) by (eapply CB_same; [exact K3 | exact Q3 | exact HC2]).
  assert (HP3 : PI s3) by (eapply R_PI; [eapply lost_retracting_R; exact H3 | exact HP2]).
  assert (J3 : InvWX1.J (core_of s3)).
  { eapply (lost_retracting_J w t); [exact (cb_s _ HC2) | exact Jx2 | | exact H3].
    intros t' Hin' _. unfold perm_of_set in Ep. apply andb_true_iff in Ep. destruct Ep as [_ Ep]. rewrite forallb_forall in Ep.
    apply tid_mem_In. apply Ep. apply in_map. exact Hin'. }
  assert (HG3 : GD (core_of s3)) by exact (proj1 (RL_scr _ _ HG2 (lost_retracting_scr _ _ _ _ H3))).
  assert (Hpf3 : forall x, In x retracted -> exists tx wx, find_task (c_tasks (core_of s3)) x = Some tx /\ t_state tx = Prefilled wx).
  { intros x Hx. destruct (Hpf x Hx) as (tx & wx & Hfx & Hsx). exists tx, wx. split; [|exact Hsx].
    eapply lost_retracting_keeps; [exact H3 | exact Hfx | intros w1; rewrite Hsx; discriminate]. }
  assert (Hrun3 : forall x, In x running -> W0 (core_of s3) x).
  { intros x Hx. destruct (Hrun x Hx) as (tx & Hfx & Hsx). exists tx. split; [|exact Hsx].
    eapply lost_retracting_keeps; [exact H3 | exact Hfx | intros w1; rewrite Hsx; discriminate]. }
  apply np_bind.
  { apply ex_np. apply process_retracted_tot; [exact W3 | apply PI_PWc; exact HP3 | exact Ndr | exact Hpf3]. }
  intros s4 H4.
  pose proof (process_retracted_WI _ _ _ W3 H4) as W4.
  pose proof (process_retracted_QI [] _ _ _ V3 H4) as V4.
  pose proof (process_retracted_K _ _ _ (cb_s _ HC3) H4) as K4. pose proof (process_retracted_hq _ _ _ H4) as Q4.
  assert (HC4 : CB s4) by (eapply CB_same; [exact K4 | exact Q4 | exact HC3]).
  assert (HP4 : PI s4) by (eapply R_PI; [eapply NoPanicL0.process_retracted_R; exact H4 | exact HP3]).
  assert (J4 : InvWX1.J (core_of s4)) by (eapply J_R; [exact J3 | eapply InvWX1.process_retracted_R; exact H4]).
  assert (HG4 : GD (core_of s4)) by exact (proj1 (RL_scr _ _ HG3 (process_retracted_scr _ _ _ H4))).
  assert (Hrun4 : forall x, In x running -> W0 (core_of s4) x).
  { intros x Hx. destruct (Hrun3 x Hx) as (tx & Hfx & Hsx). exists tx. split; [|exact Hsx].
    eapply process_retracted_keeps; [exact H4 | exact Hfx | intros w1; rewrite Hsx; discriminate]. }
  assert (Hok4 : HOK (hq_of s4)) by (unfold hq_same in Q3; rewrite Q4, Q3; exact Hok2).
  cbv zeta. set (s5 := broadcast s4 (DLostWorker w)) in *.
  assert (HC5 : CB s5) by (eapply CB_same; [| |exact HC4]; reflexivity).
  assert (HP5 : PI s5) by (eapply R_PI; [apply R_eq; apply broadcast_sids | exact HP4]).
  apply np_bind.
  { apply ex_np. apply process_worker_lost_tot; [exact Hok4|].
    intros x Hx. apply (cb_b _ HC5). apply find_task_present. destruct (Hrun4 x Hx) as (tx & Hfx & _). exists tx. exact Hfx. }
  intros s6 H6.
  destruct (process_worker_lost_active _ _ _ _ _ H6) as [C6 A6]. unfold core_same in C6.
  assert (C6' : core_of s6 = core_of s4) by exact C6.
  assert (HL6 : LI s6).
  { constructor.
    - eapply process_worker_lost_ok; [|exact H6]. exact Hok4.
    - eapply CB_frame; [unfold K; rewrite C6; reflexivity | exact A6 | exact HC5].
    - rewrite C6'. exact W4.
    - rewrite C6'. exact V4.
    - rewrite C6'. exact HG4.
    - rewrite C6'. exact J4.
    - eapply R_PI; [apply R_CP; eapply process_worker_lost_CP; exact H6 | exact HP5]. }
  apply np_bind.
  { apply ex_np. apply lost_fail_running_tot; [exact HL6|].
    intros id tk Hid Hf. rewrite C6' in Hf. destruct (Hrun4 id Hid) as (tx & Hfx & Hsx). rewrite Hf in Hfx. inversion Hfx; subst tx. exact Hsx. }
  intros s7 _. reflexivity.
Qed.

Theorem connect_never_panics : forall s rs g, INV s -> PW s -> is_panic (step s (OpConnect rs g)) = false.
Proof. intros s rs g _ _. reflexivity. Qed.

(** The state facts of InvWX1.v (true in every reachable state: InvWX3.v) are needed: [MND] for the
    loss of the root of a multi-node task, [MNE] / [RWA] for the cancellation of a job whose failure
    limit is exceeded by a task that was running on the lost worker. *)
Lemma LI_of_INV s outs : INV s -> PW s -> InvWX1.J (s_core s) -> LI (s, outs).
Proof.
  intros [Hok _ HC HW HQ _ HD _] Hpw HJ. constructor.
  - exact Hok.
  - eapply CB_outs. exact HC.
  - exact HW.
  - exact HQ.
  - exact HD.
  - exact HJ.
  - split; [exact (WIX_sw _ _ HW) | exact Hpw].
Qed.

Theorem worker_loss_never_panics_J : forall s w reason a p t,
  INV s -> PW s -> InvWX1.J (s_core s) -> is_panic (step s (OpLost w reason a p t)) = false.
Proof.
  intros s w reason a p t HI Hpw HJ. cbn [step].
  destruct (find_proc (s_procs s) w) as [pr|] eqn:Ef; [|reflexivity].
  apply on_remove_worker_np; [apply LI_of_INV; assumption | cbn; rewrite Ef; discriminate].
Qed.

Theorem worker_loss_never_panics : forall s w reason a p t,
  INV s -> PW s ->
  InvWX1.MNE (s_core s) -> InvWX1.RWA (s_core s) ->
  (forall tk ws, In tk (c_tasks (s_core s)) -> t_state tk = RunningMN ws -> ws <> [] /\ NoDup ws) ->
  is_panic (step s (OpLost w reason a p t)) = false.
Proof.
  intros s w reason a p t HI Hpw H1 H2 H3. apply worker_loss_never_panics_J; [exact HI | exact Hpw|].
  apply J_MNE_RWA. split; [exact H1|]. split; [exact H2|]. intros tk ws Hin Est. exact (proj2 (H3 tk ws Hin Est)).
Qed.

Theorem worker_events_never_panic_reachable ops reserve maxfill s outs :
  Forall op_wf ops -> run_fresh (init_sys reserve maxfill) ops = true -> run (init_sys reserve maxfill) ops = Ok (s, outs) ->
  (forall rs g, is_panic (step s (OpConnect rs g)) = false) /\
  (forall w reason a p t, is_panic (step s (OpLost w reason a p t)) = false).
Proof.
  intros Hwf Hf H. split; [intros; reflexivity|]. intros w reason a p t.
  destruct (reachable_MNE_RWA_MNOK _ _ _ _ _ Hwf Hf H) as (H1 & H2 & H3).
  apply worker_loss_never_panics; [eapply reachable_INV; eassumption | eapply reachable_PW; exact H | exact H1 | exact H2 | exact H3].
Qed.
