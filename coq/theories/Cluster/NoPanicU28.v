(** Stage 3, totality of the server's handling of worker messages, part 2: [task_finished],
    and [task_failed] reported by a worker ([w = Some _]).  The latter goes like
    [NoPanicL4.task_failed_none_tot] (the task is placed instead of ready: the first phase releases
    it from the worker sets / queues). *)
From HQ Require Import Base.Prelude Cluster.Types Cluster.Core Cluster.Reactor Cluster.Worker Cluster.Server Cluster.Sys Cluster.Monitors Cluster.RejHyp Cluster.ProofsJob Cluster.ProofsMore Cluster.ProofsTerminal Cluster.ProofsStep Cluster.ProofsFinal Cluster.BijBase Cluster.BijCore Cluster.BijHq Cluster.BijSt Cluster.BijReact Cluster.BijFinal Cluster.FrameGen Cluster.CrashFrame Cluster.InvWBase Cluster.InvWView Cluster.InvWCore Cluster.InvWReact Cluster.InvWServer Cluster.InvWFinal Cluster.InvQBase Cluster.InvQTake Cluster.InvQInv Cluster.InvQOps Cluster.InvQReact Cluster.InvQReact2 Cluster.InvQServer Cluster.InvQStep Cluster.InvDBase Cluster.InvDSpec Cluster.InvDRem Cluster.InvDReact Cluster.InvDSched Cluster.InvDStep Cluster.InvBundle Cluster.InvProcsDef Cluster.NoPanicC1 Cluster.NoPanicC2 Cluster.NoPanicC3 Cluster.InvWX1 Cluster.InvWX3 Cluster.NoPanicL0 Cluster.NoPanicL1 Cluster.NoPanicL4 Cluster.NoPanicU0 Cluster.NoPanicU1 Cluster.NoPanicU6 Cluster.NoPanicU22.
From HQ Require Import Cluster.ModelFacts.
From Coq Require Import ZArith Lia Sorting.Sorted.
Local Open Scope N_scope.

Arguments N.add : simpl never.
Arguments N.sub : simpl never.

(** * What a disposed prefill set consists of ([NoPanicC2.dispose_ret_prefilled] for any [Z]) *)
Lemma dispose_ret_prefilled_Z Z ret c p qs1 r : QI (exL Ready ret none) Z c -> dispose_all (c_queues c) p = (qs1, r) ->
  NoDup r /\ forall x, In x r -> ~ In x ret /\ exists t w, find_task (c_tasks c) x = Some t /\ t_state t = Prefilled w.
Proof.
  intros V H. split.
  - eapply dispose_all_nodup; [exact (qv_wf _ _ _ _ _ _ V) | | exact H].
    intros i j q q' x Hi Hj Hm Hm'.
    destruct (qv_live _ _ _ _ _ _ V _ _ _ Hi Hm) as (t & Ht & Hti). destruct (qv_live _ _ _ _ _ _ V _ _ _ Hj Hm') as (t' & Ht' & Htj).
    congruence.
  - intros x Hx. destruct (dispose_all_spec p _ _ _ (qv_wf _ _ _ _ _ _ V) H) as (_ & _ & _ & Hsrc).
    destruct (Hsrc x Hx) as (i & q & q1 & ri & Hq & Hc & Hin).
    destruct (cdp_member _ _ _ _ _ (nth_error_Forall _ _ _ _ (qv_wf _ _ _ _ _ _ V) Hq) Hc Hin) as (_ & pp & Hpf).
    destruct (qv_live _ _ _ _ _ _ V _ _ x Hq) as (t & Ht & Hti); [exists pp; right; exact Hpf|].
    rewrite <- Hti in Hq. pose proof (qv_task _ _ _ _ _ _ V _ _ _ Ht Hq) as Hp.
    unfold exp_place, exL, none in Hp. destruct (tid_mem x ret) eqn:Em.
    + exfalso. exact (proj2 Hp _ Hpf).
    + split; [apply tid_mem_nIn; exact Em|]. exists t.
      destruct (t_state t) as [n|w rv|w|w|w rv|ws|] eqn:Est; cbn [nat_place] in Hp;
        try (exfalso; exact (proj2 Hp _ Hpf)).
      * destruct (N.eqb n 0); exfalso; exact (proj2 Hp _ Hpf).
      * exists w. auto.
      * destruct (find_redirect (c_redirects c) x); exfalso; exact (proj2 Hp _ Hpf).
Qed.

Lemma wake_consumers_tot Z csm : forall c ret,
  NoDup csm ->
  (forall x, In x csm -> exists tx n, find_task (c_tasks c) x = Some tx /\ t_state tx = Waiting n /\ n <> 0) ->
  QI (exL Ready ret none) Z c -> NoDup ret -> all_prefilled c ret ->
  exists c' ret', wake_consumers c csm ret = Ok (c', ret') /\ NoDup ret' /\ all_prefilled c' ret' /\
    (forall y, ~ In y csm -> find_task (c_tasks c') y = find_task (c_tasks c) y).
Proof.
  induction csm as [|x r IH]; intros c ret Hnd Hpre V Hndr Hpf.
  - exists c, ret. split; [reflexivity|]. split; [exact Hndr|]. split; [exact Hpf | reflexivity].
  - inversion Hnd as [|? ? Hni Hnd']; subst.
    destruct (Hpre x (or_introl eq_refl)) as (t & n & Ht & Est & Hn).
    destruct (find_task_some _ _ _ Ht) as [_ Hid].
    assert (En : N.eqb n 0 = false) by (apply N.eqb_neq; exact Hn).
    set (t' := with_state t (Waiting (n - 1))).
    (* one step *)
    assert (Hone : exists c1 rt, wake_consumers c [x] ret = Ok (c1, ret ++ rt) /\
               (forall r', wake_consumers c (x :: r') ret = wake_consumers c1 r' (ret ++ rt)) /\
               c_tasks c1 = set_task (c_tasks c) t' /\
               (rt = [] \/ exists qs1, dispose_all (c_queues c) (t_prio t) = (qs1, rt))).
    { destruct (N.eqb (n - 1) 0) eqn:En1.
      - destruct (add_ready_task_tot (c_queues (upd_task c t')) t') as (qs & rt & qs1 & Ha & Hdis).
        { cbn [t_rq with_state t' c_queues upd_task with_tasks]. exact (qv_rq _ _ _ _ _ _ V _ _ Ht). }
        exists (with_queues (upd_task c t') qs), rt.
        assert (Hs : forall r', wake_consumers c (x :: r') ret = wake_consumers (with_queues (upd_task c t') qs) r' (ret ++ rt)).
        { intros r'. cbn [wake_consumers]. rewrite (get_task_ok _ _ _ Ht). cbn [bind]. rewrite Est, En. fold t'. rewrite En1, Ha. reflexivity. }
        split; [rewrite Hs; reflexivity|]. split; [exact Hs|]. split; [reflexivity|]. right. exists qs1. exact Hdis.
      - exists (upd_task c t'), [].
        assert (Hs : forall r', wake_consumers c (x :: r') ret = wake_consumers (upd_task c t') r' (ret ++ [])).
        { intros r'. cbn [wake_consumers]. rewrite (get_task_ok _ _ _ Ht). cbn [bind]. rewrite Est, En. fold t'. rewrite En1, app_nil_r. reflexivity. }
        split; [rewrite Hs; reflexivity|]. split; [exact Hs|]. split; [reflexivity | left; reflexivity]. }
    destruct Hone as (c1 & rt & H1 & Hstep & Et1 & Hrt).
    pose proof (wake_consumers_QI Z [x] c ret c1 (ret ++ rt) V H1) as V1.
    assert (Hkeep : forall y, y <> x -> find_task (c_tasks c1) y = find_task (c_tasks c) y).
    { intros y Hy. rewrite Et1, find_set_task. change (t_id t') with (t_id t). rewrite Hid.
      destruct (tid_eqb y x) eqn:E; [apply tid_eqb_eq in E; contradiction | reflexivity]. }
    assert (Hpfx : forall y ty wy, find_task (c_tasks c) y = Some ty -> t_state ty = Prefilled wy -> find_task (c_tasks c1) y = Some ty).
    { intros y ty wy Hy Hsy. rewrite Hkeep; [exact Hy|]. intros ->. rewrite Ht in Hy. inversion Hy; subst ty. congruence. }
    assert (Hret : NoDup (ret ++ rt) /\ all_prefilled c1 (ret ++ rt)).
    { destruct Hrt as [->|(qs1 & Hdis)].
      - rewrite app_nil_r. split; [exact Hndr|]. intros y Hy. destruct (Hpf y Hy) as (ty & wy & Hfy & Hsy). exists ty, wy. split; [eapply Hpfx; eassumption | exact Hsy].
      - destruct (dispose_ret_prefilled_Z Z ret c _ _ _ V Hdis) as (Hnd0 & Hp0). split.
        + apply nodup_app; [exact Hndr | exact Hnd0|]. intros y Hy Hy0. exact (proj1 (Hp0 y Hy0) Hy).
        + intros y Hy. apply in_app_or in Hy. destruct Hy as [Hy|Hy].
          * destruct (Hpf y Hy) as (ty & wy & Hfy & Hsy). exists ty, wy. split; [eapply Hpfx; eassumption | exact Hsy].
          * destruct (proj2 (Hp0 y Hy)) as (ty & wy & Hfy & Hsy). exists ty, wy. split; [eapply Hpfx; eassumption | exact Hsy]. }
    destruct Hret as [Hnd1 Hpf1].
    destruct (IH c1 (ret ++ rt) Hnd') as (c' & ret' & Hr & Hnd2 & Hpf2 & Hk2); [| exact V1 | exact Hnd1 | exact Hpf1 |].
    + intros y Hy. destruct (Hpre y (or_intror Hy)) as (ty & ny & Hfy & Hsy & Hny). exists ty, ny. split; [|auto].
      rewrite Hkeep; [exact Hfy|]. intros ->. contradiction.
    + exists c', ret'. split; [rewrite Hstep; exact Hr|]. split; [exact Hnd2|]. split; [exact Hpf2|].
      intros y Hy. rewrite Hk2 by (intros X; apply Hy; right; exact X). apply Hkeep. intros ->. apply Hy. left. reflexivity.
Qed.

Lemma reset_mn_workers_tot id l : forall c, NoDup l ->
  (forall x, In x l -> exists wk root, find_worker (c_workers c) x = Some wk /\ w_assign wk = Mn id root) ->
  exists c', reset_mn_workers c l id = Ok c'.
Proof.
  induction l as [|a r IH]; intros c Hnd Hpre; [eexists; reflexivity|].
  inversion Hnd as [|? ? Hni Hnd']; subst. destruct (Hpre a (or_introl eq_refl)) as (wk & root & Hw & Ea).
  cbn [reset_mn_workers]. rewrite (get_worker_ok _ _ _ Hw). cbn [bind]. rewrite Ea, tid_eqb_refl.
  apply IH; [exact Hnd'|]. intros x Hx. destruct (Hpre x (or_intror Hx)) as (wkx & rx & Hwx & Eax). exists wkx, rx. split; [|exact Eax].
  cbn [c_workers upd_worker with_workers]. rewrite find_set_worker. cbn [w_id reset_mn_task with_assign].
  rewrite (proj2 (find_worker_some _ _ _ Hw)). destruct (N.eqb x a) eqn:E; [apply N.eqb_eq in E; subst; contradiction | exact Hwx].
Qed.

Lemma process_task_finished_tot s id : HOK (hq_of s) -> jv (hq_of s) id = Some (Some JR) -> exists s', process_task_finished s id = Ok s'.
Proof.
  intros Hok Hj. unfold process_task_finished, hq_get_job. unfold jv in Hj.
  destruct (find_job (h_jobs (hq_of s)) (fst id)) as [j|] eqn:Ej; [|discriminate]. inversion Hj as [Hj'].
  unfold hq_of in Ej. rewrite Ej. cbn [bind]. rewrite Hj'.
  pose proof (Hok _ (find_job_in _ _ _ Ej)) as HJ. pose proof (find_job_id _ _ _ Ej) as Hid.
  unfold Reactor.csub. pose proof (cnt_pos _ _ _ Hj') as Hp. rewrite <- (jok_run _ HJ) in Hp.
  destruct (N.ltb (j_nrun j) 1) eqn:El; [apply N.ltb_lt in El; lia|]. cbn [bind].
  match goal with |- context [hq_set_job s ?jj] => set (jx := jj) end.
  assert (Hjx : JOK jx).
  { destruct HJ as [Ss R F X C A Cm]. pose proof (fun v => cnt_set_some _ _ _ JF v Ss Hj') as HC.
    subst jx. constructor; cbn; auto using jt_set_sorted;
      try (match goal with |- _ = cnt _ ?v => specialize (HC v); cbn [jst_eqb] in HC; lia end).
    intros Hcm. destruct (Cm Hcm) as (_ & _ & Hr). pose proof (HC JR) as H1. cbn [jst_eqb] in H1. lia. }
  set (sm := emit (hq_set_job s jx) (OEv (EvFinished id))).
  assert (Hokm : HOK (hq_of sm)) by (subst sm; rewrite emit_hq; apply hq_set_job_ok; assumption).
  assert (Ejm : find_job (hq_jobs sm) (fst id) = Some jx).
  { subst sm. change (find_job (hq_jobs (hq_set_job s jx)) (fst id) = Some jx). rewrite find_job_hq_set. subst jx. cbn [j_id job_upd]. rewrite Hid, N.eqb_refl. reflexivity. }
  exact (check_termination_tot sm (fst id) jx Hokm Ejm).
Qed.

Lemma xadd_same id : xadd InvWCore.x0 id id = true.
Proof. unfold xadd. rewrite tid_eqb_refl. reflexivity. Qed.
Lemma xadd_show id : forall j, InvWCore.x0 j = negb (tid_eqb j id) && xadd InvWCore.x0 id j.
Proof. intros j. unfold xadd, InvWCore.x0. destruct (tid_eqb j id); reflexivity. Qed.

Lemma PI_same s s' : PI s -> s_procs (fst s') = s_procs (fst s) -> wids (core_of s') = wids (core_of s) -> PI s'.
Proof. intros [H1 H2] Ep Ew. split; [unfold WS; rewrite Ew; exact H1 | unfold pids; rewrite Ep, Ew; exact H2]. Qed.

Lemma task_finished_tot s w id t : LI s -> find_task (c_tasks (core_of s)) id = Some t ->
  ((exists rv, t_state t = Running w rv) \/ (exists ws, t_state t = RunningMN (w :: ws))) ->
  jv (hq_of s) id = Some (Some JR) ->
  exists r, task_finished s w id = Ok r.
Proof.
  intros HL Ef Hst Hjr. unfold task_finished. cbv zeta. set (c := core_of s) in *. rewrite Ef.
  pose proof (li_wi _ HL) as HW. pose proof (li_qi _ HL) as V. pose proof (li_gd _ HL) as [Hts D]. pose proof (li_pi _ HL) as HP.
  pose proof (cb_s _ (li_cb _ HL)) as Hs. fold c in HW, V, Hts, D, Hs.
  destruct (find_task_some _ _ _ Ef) as [Hin Hid].
  destruct (LI_get_rq s id t HL Ef) as (rq & Hrq). fold c in Hrq. rewrite Hrq. cbn [bind].
  (* phase 1: the worker sets *)
  match goal with |- exists r, bind ?m _ = Ok r =>
    assert (A1 : exists c1, m = Ok c1 /\ WIX (xadd InvWCore.x0 id) c1 /\ qsame c c1 /\ wids c1 = wids c) end.
  { destruct Hst as [(rv & Est)|(ws & Est)]; rewrite Est.
    - rewrite N.eqb_refl. cbn [negb].
      destruct (WIX_A _ _ id t w HW eq_refl Ef) as (wk & a & p & f & Hw & Ea & Hm); [rewrite Est; reflexivity|].
      rewrite (get_worker_ok _ _ _ Hw). cbn [bind].
      destruct (remove_sn_task_tot wk id (rq_res rq) a p f Ea Hm) as (wk' & Hrm & Hwi'). rewrite Hrm. cbn [bind].
      exists (upd_worker c wk'). split; [reflexivity|]. split; [eapply release_sn; [exact HW | exact Ef | rewrite Est; reflexivity | exact Hw | exact Hrm]|].
      split; [repeat split|]. unfold wids. cbn [c_workers upd_worker with_workers]. eapply (set_worker_keep _ w wk wk'); [exact (proj1 HW) | exact Hwi' | exact Hw].
    - rewrite N.eqb_refl.
      destruct (reset_mn_workers_tot id (w :: ws) c) as (c1 & H1).
      { pose proof (li_j _ HL) as HJ. apply J_MNE_RWA in HJ. destruct HJ as (_ & _ & Hmnd). exact (Hmnd t _ Hin Est). }
      { intros x Hx. exact (WIX_M _ _ id t (w :: ws) x HW eq_refl Ef ltac:(rewrite Est; reflexivity) Hx). }
      rewrite H1. exists c1. split; [reflexivity|]. split; [exact (proj1 (release_mn _ _ _ _ _ HW Ef Est H1))|].
      split; [eapply reset_mn_workers_qsame; exact H1|]. eapply reset_mn_workers_wids; [exact (proj1 HP) | exact H1]. }
  destruct A1 as (c1 & -> & W1 & Hqs & Ewid). cbn [bind].
  pose proof Hqs as (T1 & Q1 & R1 & Rq1).
  set (tF := with_state t Finished).
  assert (HW2 : WI (upd_task c1 tF)).
  { exact (C_show _ _ W1 InvWCore.x0 id tF (xadd_same id) (xadd_show id) Hid (or_introl eq_refl)). }
  (* the queue invariant with the task marked finished *)
  assert (Hnw : nat_place (c_redirects c) id (t_state t) = Nowhere /\ forall w0, t_state t <> Retracting w0).
  { destruct Hst as [(rv & Est)|(ws & Est)]; rewrite Est; split; try reflexivity; intros w0; discriminate. }
  assert (V1 : QI (exU none id Nowhere) [] c1).
  { apply (QI_same _ _ _ _ Hqs). eapply QI_mark_nowhere; [exact V | exact Ef | exact (proj1 Hnw) | exact (proj2 Hnw)]. }
  assert (Nr1 : find_redirect (c_redirects c1) id = None).
  { rewrite R1. eapply QV_no_redirect; [exact V | exact Ef | exact (proj2 Hnw)]. }
  assert (V2 : QI none [id] (upd_task c1 tF)).
  { qi_simpl. assert (Ef1 : find_task (c_tasks c1) id = Some t) by (rewrite T1; exact Ef).
    eapply QV_task0; [eapply QV_Z; [exact V1 | intros x []] | exact Ef1 | exact Hid | reflexivity | reflexivity | | | |].
    - intros x Hne. symmetry. apply exU_other. exact Hne.
    - unfold exp_place. rewrite exU_same. reflexivity.
    - intros v Hv. congruence.
    - intros _. left. reflexivity. }
  (* the job layer *)
  destruct (process_task_finished_tot (st_core s (upd_task c1 tF)) id (li_ok _ HL) Hjr) as (s1 & Hf). rewrite Hf. cbn [bind].
  destruct (process_task_finished_active _ _ _ Hf) as [C1 _]. unfold core_same in C1. cbn [core_of st_core with_core s_core fst] in C1.
  destruct (NoPanicU10.process_task_finished_frame _ _ _ Hf) as [_ P1]. cbn [st_core fst with_core s_procs] in P1.
  rewrite C1.
  (* the consumers *)
  destruct (wake_consumers_tot [id] (t_consumers tF) (upd_task c1 tF) []) as (c3 & ret & Hwk & Hndr & Hpf & Hk3).
  { exact (dx_nc _ _ D _ _ Ef). }
  { intros y Hy. destruct (DI_consumer_waits (fm c) id t y D Ef Hy) as (ty & n & Hfy & Hsy & Hn). exists ty, n. split; [|auto].
    cbn [c_tasks upd_task with_tasks]. rewrite find_set_task, T1. cbn [t_id tF with_state]. rewrite Hid.
    destruct (tid_eqb y id) eqn:E; [|exact Hfy]. apply tid_eqb_eq in E. subst y. unfold fm in Hfy. rewrite Ef in Hfy. inversion Hfy; subst ty.
    exfalso. destruct Hst as [(rv & Est)|(ws & Est)]; congruence. }
  { exact V2. } { constructor. } { intros x []. }
  rewrite Hwk. cbn [bind].
  assert (HW3 : WI c3) by (eapply wake_consumers_WI; [exact HW2 | exact Hwk]).
  assert (Ew3 : wids c3 = wids c).
  { assert (Hws : WS (upd_task c1 tF)) by (unfold WS; change (wids (upd_task c1 tF)) with (wids c1); rewrite Ewid; exact (proj1 HP)).
    rewrite (wake_consumers_wids _ _ _ _ _ Hws Hwk). exact Ewid. }
  destruct (process_retracted_tot (st_core s1 c3) ret) as (s2 & Hr).
  - exact HW3.
  - apply PI_PWc. apply (PI_same s); [exact HP | cbn [st_core fst with_core s_procs]; exact P1 | exact Ew3].
  - exact Hndr.
  - exact Hpf.
  - rewrite Hr. cbn [bind].
    assert (Hf3 : find_task (c_tasks c3) id = Some tF).
    { rewrite Hk3.
      - cbn [c_tasks upd_task with_tasks]. rewrite find_set_task. cbn [t_id tF with_state]. rewrite Hid, tid_eqb_refl. reflexivity.
      - cbn [t_consumers tF with_state]. intros Hy. destruct (DI_consumer_waits (fm c) id t id D Ef Hy) as (ty & n & Hfy & Hsy & Hn).
        unfold fm in Hfy. rewrite Ef in Hfy. inversion Hfy; subst ty. destruct Hst as [(rv & Est)|(ws & Est)]; congruence. }
    pose proof (process_retracted_keeps (st_core s1 c3) ret s2 id tF Hr Hf3 ltac:(intros w1; discriminate)) as Hf4.
    unfold remove_task. rewrite Hf4. cbn [t_state tF with_state bind]. eauto.
Qed.

Definition placed_on (st : tstate) (w : wid) : Prop :=
  match st with
  | Assigned w1 _ | Prefilled w1 | Retracting w1 | Running w1 _ => w1 = w
  | RunningMN (w0 :: _) => w0 = w
  | _ => False
  end.
Definition is_mn_state (st : tstate) : bool := match st with RunningMN _ => true | _ => false end.

Lemma fail_release s w id t rq : LI s -> find_task (c_tasks (core_of s)) id = Some t -> placed_on (t_state t) w ->
  rq_is_mn rq = is_mn_state (t_state t) ->
  exists c1,
    (if rq_is_mn rq then
       match t_state t with
       | RunningMN ws => match ws with w0 :: _ => if N.eqb w0 w then reset_mn_workers (core_of s) ws id else Panic 165 | [] => Panic 165 end
       | _ => Panic 166
       end
     else
       match t_state t with
       | Assigned w1 _ | Running w1 _ =>
           if negb (N.eqb w w1) then Panic 167
           else do wk <- get_worker (c_workers (core_of s)) w;
                do wk' <- remove_sn_task wk id (rq_res rq);
                Ok (upd_worker (core_of s) wk')
       | Prefilled w1 =>
           if negb (N.eqb w w1) then Panic 167
           else do q <- nth_queue (c_queues (core_of s)) (N.to_nat (t_rq t));
                do q' <- q_remove_prefilled q id;
                do wk <- get_worker (c_workers (core_of s)) w;
                do wk' <- remove_prefill_task wk id;
                Ok (upd_worker (with_queues (core_of s) (set_queue (c_queues (core_of s)) (N.to_nat (t_rq t)) q')) wk')
       | Retracting w1 =>
           if negb (N.eqb w w1) then Panic 167 else try_remove_redirection (core_of s) t
       | _ => Ok (core_of s)
       end) = Ok c1 /\
    WIX (xadd InvWCore.x0 id) c1 /\ c_tasks c1 = c_tasks (core_of s) /\ QI (exU none id Nowhere) [] c1 /\ wids c1 = wids (core_of s).
Proof.
  intros HL Ef Hpl Hmn. set (c := core_of s) in *.
  pose proof (li_wi _ HL) as HW. pose proof (li_qi _ HL) as V. pose proof (li_pi _ HL) as HP. fold c in HW, V.
  destruct (find_task_some _ _ _ Ef) as [Hin Hid].
  assert (Hmark : forall c0, qsame c c0 -> nat_place (c_redirects c) id (t_state t) = Nowhere -> (forall w0, t_state t <> Retracting w0) ->
            QI (exU none id Nowhere) [] c0).
  { intros c0 Hs Hn Hnr. apply (QI_same _ _ _ _ Hs). eapply QI_mark_nowhere; eassumption. }
  assert (Hsn : forall w1, pl (t_state t) = PA w1 -> w1 = w -> nat_place (c_redirects c) id (t_state t) = Nowhere -> (forall w0, t_state t <> Retracting w0) ->
            exists c1, (do wk <- get_worker (c_workers c) w; do wk' <- remove_sn_task wk id (rq_res rq); Ok (upd_worker c wk')) = Ok c1 /\
              WIX (xadd InvWCore.x0 id) c1 /\ c_tasks c1 = c_tasks c /\ QI (exU none id Nowhere) [] c1 /\ wids c1 = wids c).
  { intros w1 Hp -> Hn Hnr.
    destruct (WIX_A _ _ id t w HW eq_refl Ef Hp) as (wk & a & p & f & Hw & Ea & Hm).
    rewrite (get_worker_ok _ _ _ Hw). cbn [bind].
    destruct (remove_sn_task_tot wk id (rq_res rq) a p f Ea Hm) as (wk' & Hrm & Hwi'). rewrite Hrm. cbn [bind].
    exists (upd_worker c wk'). split; [reflexivity|]. split; [eapply release_sn; [exact HW | exact Ef | exact Hp | exact Hw | exact Hrm]|].
    split; [reflexivity|]. split; [apply Hmark; [repeat split | exact Hn | exact Hnr]|].
    unfold wids. cbn [c_workers upd_worker with_workers]. eapply (set_worker_keep _ w wk wk'); [exact (proj1 HW) | exact Hwi' | exact Hw]. }
  rewrite Hmn. destruct (t_state t) as [n|w1 rv1|w1|w1|w1 rv1|ws|] eqn:Est; cbn [is_mn_state placed_on] in *; try (destruct Hpl; fail).
  - (* Assigned *) subst w1. rewrite N.eqb_refl. cbn [negb]. apply (Hsn w); [reflexivity | reflexivity | reflexivity | intros w0; discriminate].
  - (* Prefilled *) subst w1. rewrite N.eqb_refl. cbn [negb].
    destruct (QV_queue _ _ _ _ _ _ _ _ V Ef) as (q & Hq & Hwf & Hp).
    rewrite (proj2 (nth_queue_ok _ _ _) Hq). cbn [bind].
    unfold exp_place, none in Hp. rewrite Est in Hp. cbn [nat_place] in Hp.
    destruct (q_remove_prefilled_tot q id (t_prio t) (placed_prefill_at _ _ _ Hp)) as (q' & Hq'). rewrite Hq'. cbn [bind].
    destruct (WIX_P _ _ id t w HW eq_refl Ef) as (wk & a & p & f & Hw & Ea & Hm); [rewrite Est; reflexivity|].
    rewrite (get_worker_ok _ _ _ Hw). cbn [bind].
    destruct (remove_prefill_task_tot wk id a p f Ea Hm) as (wk' & Hrm & Hwi'). rewrite Hrm. cbn [bind].
    eexists. split; [reflexivity|]. split.
    { refine (WIX_frame _ (upd_worker c wk') _ eq_refl eq_refl eq_refl eq_refl _).
      eapply C_relP; [exact HW | reflexivity | exact Ef | rewrite Est; reflexivity | exact Hw | exact Hrm]. }
    split; [reflexivity|]. split.
    { unfold QI. cbn [c_tasks c_queues c_redirects c_rqs upd_worker with_workers with_queues].
      eapply QV_q_remove_prefilled; [exact V | exact Ef | exact Hq | exact Hq'|].
      eapply QV_no_redirect; [exact V | exact Ef | intros w0; congruence]. }
    unfold wids. cbn [c_workers upd_worker with_workers with_queues]. eapply (set_worker_keep _ w wk wk'); [exact (proj1 HW) | exact Hwi' | exact Hw].
  - (* Retracting *) subst w1. rewrite N.eqb_refl. cbn [negb].
    destruct (try_remove_redirection_tot InvWCore.x0 [] c id t w HW V Ef Est ltac:(intros [])) as (c1 & H1).
    rewrite H1. exists c1. split; [reflexivity|].
    destruct (release_retracting _ _ _ _ _ HW Ef Est H1) as [W1 T1].
    destruct (trr_QI _ _ _ _ _ _ _ V Ef Est H1) as (V1 & _).
    split; [exact W1|]. split; [exact T1|]. split; [exact V1|]. eapply try_remove_redirection_wids; [exact (proj1 HP) | exact H1].
  - (* Running *) subst w1. rewrite N.eqb_refl. cbn [negb]. apply (Hsn w); [reflexivity | reflexivity | reflexivity | intros w0; discriminate].
  - (* RunningMN *) destruct ws as [|w0 ws]; [destruct Hpl|]. subst w0. rewrite N.eqb_refl.
    destruct (reset_mn_workers_tot id (w :: ws) c) as (c1 & H1).
    { pose proof (li_j _ HL) as HJ. apply J_MNE_RWA in HJ. destruct HJ as (_ & _ & Hmnd). exact (Hmnd t _ Hin Est). }
    { intros x Hx. exact (WIX_M _ _ id t (w :: ws) x HW eq_refl Ef ltac:(rewrite Est; reflexivity) Hx). }
    rewrite H1. exists c1. split; [reflexivity|]. destruct (release_mn _ _ _ _ _ HW Ef Est H1) as [W1 T1].
    split; [exact W1|]. split; [exact T1|].
    split; [apply Hmark; [eapply reset_mn_workers_qsame; exact H1 | reflexivity | intros w1; discriminate]|].
    eapply reset_mn_workers_wids; [exact (proj1 HP) | exact H1].
Qed.

Lemma find_worker_ids ws w : In w (map w_id ws) -> find_worker ws w <> None.
Proof.
  induction ws as [|h r IH]; cbn [find_worker map In]; [intros []|]. intros [E|Hin].
  - rewrite <- E, N.eqb_refl. discriminate.
  - destruct (N.eqb w (w_id h)); [discriminate | apply IH; exact Hin].
Qed.

Lemma wids_Dm c c' : wids c' = wids c -> Dm c c'.
Proof.
  intros E w Hw. apply find_worker_ids. change (In w (wids c')). rewrite E.
  destruct (find_worker (c_workers c) w) as [wk|] eqn:Ew; [|congruence].
  destruct (find_worker_some _ _ _ Ew) as [Hin Hi]. unfold wids. rewrite <- Hi. apply in_map. exact Hin.
Qed.

Theorem task_failed_some_tot s w id k t :
  LI s -> find_task (c_tasks (core_of s)) id = Some t -> placed_on (t_state t) w ->
  (forall rq, get_rq (c_rqs (core_of s)) (t_rq t) = Ok rq -> rq_is_mn rq = is_mn_state (t_state t)) ->
  exists s', task_failed s (Some w) id k = Ok s'.
Proof.
  intros HL Ef Hpl Hmn. pose proof HL as [Hok HC HW V [Hts D] HJ HP].
  unfold task_failed. cbv zeta. rewrite Ef.
  destruct (LI_get_rq s id t HL Ef) as (rq & Hrq). rewrite Hrq. cbn [bind].
  destruct (fail_release s w id t rq HL Ef Hpl (Hmn rq Hrq)) as (c1 & H1 & W1 & T1 & V1 & Ew1).
  rewrite H1. cbn [bind]. clear H1.
  set (c := core_of s) in *.
  assert (Hplaced : match t_state t with Waiting _ | Finished => False | _ => True end).
  { destruct (t_state t); try exact I; destruct Hpl. }
  rewrite T1.
  destruct (task_failed_tail_tot s (Some w) id k t c1 (exU none id Nowhere) Hok HC (conj Hts D) HJ HP Ef T1 Ew1 (wids_Dm _ _ Ew1) W1
              (lax_exU _ _ lax_none) V1 (fun x Hne => exU_other _ _ _ _ Hne)) as (s' & H & _).
  { right. split; [discriminate|]. split; [exact Hplaced | apply exU_same]. }
  rewrite T1 in H. exists s'. exact H.
Qed.
