(** Bridge, part 1: the job-layer simulation relation between the HQ layer of the system model and
    the abstract journal machine [Gen.G], the three-valued run [lrun] ("accepted" / "first rejected
    record is a start-or-worker record" / "first rejected record is a job-layer record"), and how the
    relation follows one job that changes.  Nothing here mentions the tako core. *)
From HQ Require Import Base.Prelude Cluster.Types Cluster.Core Cluster.Reactor Cluster.Worker Cluster.Server Cluster.Sys Cluster.ProofsJob Cluster.ProofsMore.
From HQ Require Journal.Event Journal.Restore Journal.Gen Journal.Maps.
From HQ Require Import Cluster.Bridge.
From Coq Require Import ZArith Lia.
Require Import ZifyBool ZifyN ZifyNat.
Local Open Scope N_scope.
Arguments N.add : simpl never.
Arguments N.ltb : simpl never.
Arguments N.eqb : simpl never.

(** A pending task (waiting or running in the job layer) is pending in [G]; a recorded outcome is
    the same outcome.  (Waiting / running are NOT distinguished here: the job layer puts a task
    back to waiting silently, [G] does it at the [WorkerLost] record of its root worker; that the
    two agree is the core-dependent part, see [BridgeInv].) *)
Definition st_rel (v : jstate) (x : Gen.gstate) : Prop :=
  match v with
  | JW | JR => Gen.g_terminal x = false
  | JF => x = Gen.GFinished
  | JX => x = Gen.GFailed
  | JC => x = Gen.GCanceled
  | JA => x = Gen.GAborted
  end.

Definition task_rel (jt : list (N * jstate)) (gt : Event.map Gen.GTask) : Prop :=
  forall t, match jt_find jt t, Event.lookup t gt with
            | Some v, Some x => st_rel v (Gen.gt_state x)
            | None, None => True
            | _, _ => False
            end.

Definition JRel (jb : job) (gj : Gen.GJob) : Prop :=
  Gen.gj_open gj = j_open jb /\ NoDup (Event.keys (Gen.gj_tasks gj)) /\ task_rel (j_tasks jb) (Gen.gj_tasks gj).

(** Jobs: a job of the job layer without completion date is in [G] with the same open flag and
    tasks; a completed job is not in [G]; a job [G] still has but the job layer has not was
    forgotten while terminated (a closed job that never had a task). *)
Definition RelJ (h : hq) (g : Gen.G) : Prop :=
  (forall j, match find_job (h_jobs h) j with
             | Some jb => if j_completed jb then Event.lookup j (Gen.g_jobs g) = None
                          else exists gj, Event.lookup j (Gen.g_jobs g) = Some gj /\ JRel jb gj
             | None => match Event.lookup j (Gen.g_jobs g) with
                       | Some gj => Gen.job_terminated gj = true
                       | None => True
                       end
             end)
  /\ Gen.g_max_job g + 1 = h_counter h.

Definition core_event (e : Event.Event) : bool :=
  match e with
  | Event.ETaskStarted _ _ _ _ | Event.ETaskFinished _ _ | Event.EWorkerConnected _ _ | Event.EWorkerLost _ _ => true
  | _ => false
  end.

Inductive lres := LOk (g : Gen.G) | LCore | LBad.

Definition lstep (g : Gen.G) (e : Event.Event) : lres :=
  match Gen.gstep g e with
  | Some g' => LOk g'
  | None => if core_event e then LCore else LBad
  end.

Fixpoint lrun (g : Gen.G) (evs : list Event.Event) : lres :=
  match evs with
  | [] => LOk g
  | e :: r => match lstep g e with LOk g' => lrun g' r | x => x end
  end.

Lemma lrun_app a : forall g b, lrun g (a ++ b) = match lrun g a with LOk g1 => lrun g1 b | x => x end.
Proof.
  induction a as [|e r IH]; intros g b; cbn [lrun app]; [reflexivity|].
  destruct (lstep g e); [apply IH | reflexivity | reflexivity].
Qed.

Lemma lrun_grun evs : forall g g', lrun g evs = LOk g' <-> Gen.grun g evs = Some g'.
Proof.
  induction evs as [|e r IH]; intros g g'; cbn [lrun Gen.grun].
  - split; intros H; inversion H; reflexivity.
  - unfold lstep. destruct (Gen.gstep g e) as [g1|]; [apply IH|].
    split; [|discriminate]. destruct (core_event e); discriminate.
Qed.

Definition SimE (h : hq) (evs : list Event.Event) (h' : hq) : Prop :=
  forall g, RelJ h g -> match lrun g evs with LOk g' => RelJ h' g' | LCore => True | LBad => False end.

Lemma SimE_nil h : SimE h [] h.
Proof. intros g H. exact H. Qed.

Lemma SimE_app h a h1 b h2 : SimE h a h1 -> SimE h1 b h2 -> SimE h (a ++ b) h2.
Proof.
  intros A B g H. rewrite lrun_app. specialize (A g H). destruct (lrun g a) as [g1| |]; [|exact I | exact A].
  exact (B g1 A).
Qed.

Lemma SimE_one h e h' :
  (forall g, RelJ h g -> match Gen.gstep g e with Some g' => RelJ h' g' | None => core_event e = true end) -> SimE h [e] h'.
Proof.
  intros A g H. specialize (A g H). cbn [lrun]. unfold lstep. destruct (Gen.gstep g e); [exact A|]. rewrite A. exact I.
Qed.

Lemma g_terminal_st v x : st_rel v x -> Gen.g_terminal x = match v with JW | JR => false | _ => true end.
Proof. destruct v; cbn; intros H; subst; auto. Qed.

Lemma st_rel_pending v x : st_rel v x -> v = JW \/ v = JR -> Gen.g_terminal x = false.
Proof. intros H [-> | ->]; exact H. Qed.

Lemma pending_not_completed jb t v :
  JOK jb -> jt_find (j_tasks jb) t = Some v -> v = JW \/ v = JR -> j_completed jb = false.
Proof.
  intros Hok Hf Hv. destruct (j_completed jb) eqn:Hc; [|reflexivity].
  destruct (jok_completed _ Hok Hc) as (_ & Hw & Hr). pose proof (cnt_find_pos _ _ _ Hf) as Hp.
  destruct Hv; subst v; lia.
Qed.

Lemma RelJ_job h g j jb : RelJ h g -> find_job (h_jobs h) j = Some jb -> j_completed jb = false ->
  exists gj, Event.lookup j (Gen.g_jobs g) = Some gj /\ JRel jb gj.
Proof. intros [H _] Hf Hc. specialize (H j). rewrite Hf, Hc in H. exact H. Qed.

Lemma RelJ_job_inv h g j jb gj : RelJ h g -> find_job (h_jobs h) j = Some jb -> Event.lookup j (Gen.g_jobs g) = Some gj ->
  j_completed jb = false /\ JRel jb gj.
Proof.
  intros [H _] Hf Hl. specialize (H j). rewrite Hf in H. destruct (j_completed jb); [congruence|].
  destruct H as (gj' & Hl' & HR). split; [reflexivity|]. congruence.
Qed.

Lemma task_rel_upd jt jt' gt t v' x :
  task_rel jt gt ->
  (forall t', t' <> t -> jt_find jt' t' = jt_find jt t') -> jt_find jt' t = Some v' ->
  st_rel v' (Gen.gt_state x) ->
  task_rel jt' (Event.insert t x gt).
Proof.
  intros H Ho Hs Hst t'. rewrite Maps.lookup_insert. destruct (N.eqb_spec t' t) as [->|Hn].
  - rewrite Hs. exact Hst.
  - rewrite (Ho t' Hn). apply H.
Qed.

Lemma task_rel_set jt gt t v x x0 :
  task_rel jt gt -> Event.lookup t gt = Some x0 -> st_rel v (Gen.gt_state x) ->
  task_rel (jt_set jt t v) (Event.insert t x gt).
Proof.
  intros H _ Hs. eapply task_rel_upd; [exact H | | apply jt_find_set_same | exact Hs].
  intros t' Hn. apply jt_find_set_other. exact Hn.
Qed.

Lemma nodup_set_task gj t x : NoDup (Event.keys (Gen.gj_tasks gj)) -> NoDup (Event.keys (Gen.gj_tasks (Gen.gj_set_task gj t x))).
Proof. intros H. cbn. apply Maps.nodup_insert. exact H. Qed.

Definition UPD (h h' : hq) (j : N) (jb' : job) : Prop :=
  (forall id, find_job (h_jobs h') id = if N.eqb id j then Some jb' else find_job (h_jobs h) id)
  /\ h_counter h' = h_counter h.

Lemma RelJ_upd2 h h' g g1 j jb' gj' :
  RelJ h g -> UPD h h' j jb' -> j_completed jb' = false ->
  Event.lookup j (Gen.g_jobs g1) = Some gj' -> JRel jb' gj' ->
  (forall id, id <> j -> Event.lookup id (Gen.g_jobs g1) = Event.lookup id (Gen.g_jobs g)) ->
  Gen.g_max_job g1 = Gen.g_max_job g ->
  RelJ h' g1.
Proof.
  intros [HJ HM] [Hf Hc] Hcm Hl HR Ho Hmx. split; [|rewrite Hmx, Hc; exact HM].
  intros id. rewrite Hf. destruct (N.eqb_spec id j) as [->|Hn].
  - rewrite Hcm. eexists; split; [exact Hl | exact HR].
  - rewrite (Ho id Hn). exact (HJ id).
Qed.

Lemma RelJ_upd1 h h' g j jb' gj' :
  RelJ h g -> UPD h h' j jb' -> j_completed jb' = false -> JRel jb' gj' ->
  RelJ h' (Gen.g_set_jobs g (Event.insert j gj' (Gen.g_jobs g))).
Proof.
  intros HR HU Hc HJ. eapply RelJ_upd2; [exact HR | exact HU | exact Hc | | exact HJ | | reflexivity].
  - apply Maps.lookup_insert_eq.
  - intros id Hn. apply Maps.lookup_insert_neq. exact Hn.
Qed.

Lemma RelJ_upd h h' g j jb' gj' :
  RelJ h g ->
  (forall id, find_job (h_jobs h') id = if N.eqb id j then Some jb' else find_job (h_jobs h) id) ->
  h_counter h' = h_counter h ->
  j_completed jb' = false -> JRel jb' gj' ->
  RelJ h' (Gen.g_set_jobs g (Event.insert j gj' (Gen.g_jobs g))).
Proof. intros HR Hf Hc. exact (RelJ_upd1 _ _ _ _ _ _ HR (conj Hf Hc)). Qed.

(** [jb'] is [jb] with task [t] in state [v]; the counters are not constrained. *)
Definition retask (jb jb' : job) (t : N) (v : jstate) : Prop :=
  j_open jb' = j_open jb /\ j_completed jb' = j_completed jb
  /\ (forall t', t' <> t -> jt_find (j_tasks jb') t' = jt_find (j_tasks jb) t')
  /\ jt_find (j_tasks jb') t = Some v.

Lemma retask_upd jb t v nrun nfin nfail ncanc nabort :
  retask jb (job_upd jb (jt_set (j_tasks jb) t v) nrun nfin nfail ncanc nabort (j_completed jb)) t v.
Proof.
  split; [reflexivity|]. split; [reflexivity|]. split; [|apply jt_find_set_same].
  intros t' Hn. apply jt_find_set_other. exact Hn.
Qed.

Lemma retask_same jb t v : jt_find (j_tasks jb) t = Some v -> retask jb jb t v.
Proof. intros H. split; [reflexivity|]. split; [reflexivity|]. split; [reflexivity | exact H]. Qed.

(** A running task is put back to waiting without a record: both are "pending" in [G]. *)
Lemma RelJ_quiet h h' g j jb jb' t :
  RelJ h g -> find_job (h_jobs h) j = Some jb -> UPD h h' j jb' ->
  jt_find (j_tasks jb) t = Some JR -> retask jb jb' t JW ->
  RelJ h' g.
Proof.
  intros [HJ HM] Hfj [Hf Hc] Hft (Ho & Hcm & Hother & Hnew). split; [|rewrite Hc; exact HM].
  intros id. rewrite Hf. destruct (N.eqb_spec id j) as [->|]; [|exact (HJ id)].
  specialize (HJ j). rewrite Hfj in HJ. rewrite Hcm.
  destruct (j_completed jb); [exact HJ|]. destruct HJ as (gj & Hl & Ho' & Hn & Ht).
  exists gj. split; [exact Hl|]. split; [congruence|]. split; [exact Hn|].
  intros t'. specialize (Ht t'). destruct (N.eq_dec t' t) as [->|Hn'].
  - rewrite Hnew. rewrite Hft in Ht. exact Ht.
  - rewrite (Hother t' Hn'). exact Ht.
Qed.
