(** Bridge, part 4: the client handlers and one step of the system. *)
From HQ Require Import Base.Prelude Cluster.Types Cluster.Core Cluster.Reactor Cluster.Worker Cluster.Server Cluster.Sys Cluster.ProofsJob Cluster.ProofsMore Cluster.ProofsStep Cluster.ProofsOnce Cluster.DepOrderBase Cluster.SilentBase.
From HQ Require Import Cluster.ModelFacts.
From HQ Require Journal.Event Journal.Restore Journal.Gen Journal.Maps Journal.RestoreProofs.
From HQ Require Import Cluster.Bridge Cluster.BridgeRel Cluster.BridgeEv Cluster.BridgeJob.
From Coq Require Import ZArith Lia.
Require Import ZifyBool ZifyN ZifyNat.
Local Open Scope N_scope.
Arguments N.add : simpl never.
Arguments N.sub : simpl never.
Arguments N.ltb : simpl never.
Arguments N.eqb : simpl never.

Lemma submit_tail_sim specs s s4 jid closed n j' tasks s6 s' :
  snd s4 = snd s ++ [OEv (EvSubmit jid closed n)] ->
  on_new_tasks (hq_set_job s4 j') tasks = Ok s6 -> submit_ok_resp s6 jid = Ok s' ->
  SimE (hq_of s) [Event.ESubmit jid closed specs] (hq_of (hq_set_job s4 j')) ->
  SimF specs s s'.
Proof.
  intros S4 Hn Hr HS. pose proof (on_new_tasks_hq _ _ _ Hn) as Q6. pose proof (on_new_tasks_snd _ _ _ Hn) as P6.
  unfold submit_ok_resp in Hr. inv_bind Hr. injection Hb0 as <-.
  eexists. split.
  { unfold emit. cbn [snd fst]. rewrite P6. unfold hq_set_job. cbn [snd]. rewrite S4, <- app_assoc. reflexivity. }
  unfold jevents_of_outs. cbn [flat_map jout jev app]. rewrite emit_hq, Q6. exact HS.
Qed.

Lemma submit_open_sim specs s s4 jid ids' jb j j' :
  HOK (hq_of s) -> hq_of s4 = hq_of s -> find_job (hq_jobs s) jid = Some jb -> j_open jb = true ->
  hq_get_job s4 jid 222 = Ok j -> attach_ids j ids' = Ok j' -> List.map Event.ts_id specs = ids' ->
  (forall (m : Event.map Gen.GTask),
      (forall d, Event.mem d m = match jt_find (j_tasks jb) d with Some _ => true | None => false end) ->
      NoDup ids' -> (forall i, In i ids' -> Event.mem i m = false) -> Restore.validate m specs = true) ->
  SimE (hq_of s) [Event.ESubmit jid false specs] (hq_of (hq_set_job s4 j')).
Proof.
  intros H E4 Hfb Hob Hg Ha Hids Hval.
  destruct (hq_get_job_find _ _ _ _ Hg) as (Hfj & Hid). rewrite E4 in Hfj.
  rewrite (Hfb : find_job (h_jobs (hq_of s)) jid = Some jb) in Hfj. injection Hfj as <-.
  destruct (attach_ids_spec _ _ _ Ha) as (Hnd & Hfresh & Hjt & A1 & A2 & A3).
  assert (Hok : JOK jb) by (apply H; eapply find_job_in; exact Hfb).
  eapply ev_submit_open with (jb' := j'); [exact Hfb | exact Hok | exact Hob | | congruence | | | ].
  - rewrite <- E4. apply UPD_set. congruence.
  - rewrite A3. apply open_not_completed; assumption.
  - intros t. rewrite Hjt, Hids. reflexivity.
  - intros m Hm. apply Hval; [exact Hm | exact Hnd|]. intros i Hi. rewrite Hm, (Hfresh i Hi). reflexivity.
Qed.

Lemma submit_new_sim specs s s4 ids' j j' mf :
  hq_of s4 = mkHq (set_job (hq_jobs s) (mkJob (hq_counter s) false [] 0 0 0 0 0 false mf)) (hq_counter s + 1) ->
  hq_get_job s4 (hq_counter s) 222 = Ok j -> attach_ids j ids' = Ok j' -> List.map Event.ts_id specs = ids' ->
  (forall (m : Event.map Gen.GTask),
      (forall d, Event.mem d m = false) ->
      NoDup ids' -> (forall i, In i ids' -> Event.mem i m = false) -> Restore.validate m specs = true) ->
  SimE (hq_of s) [Event.ESubmit (hq_counter s) true specs] (hq_of (hq_set_job s4 j')).
Proof.
  intros E4 Hg Ha Hids Hval.
  destruct (hq_get_job_find _ _ _ _ Hg) as (Hfj & _). rewrite E4 in Hfj. cbn [h_jobs] in Hfj.
  rewrite find_job_set in Hfj. cbn [j_id] in Hfj. rewrite N.eqb_refl in Hfj. injection Hfj as <-.
  destruct (attach_ids_spec _ _ _ Ha) as (Hnd & _ & Hjt & A1 & A2 & A3).
  destruct (UPD_set s4 j' _ A1) as [Hu Hcn]. rewrite E4 in Hu, Hcn.
  apply ev_submit_new with (jb' := j'); [ | exact Hcn | exact A2 | exact A3 | | ].
  - intros id. rewrite Hu. cbn [h_jobs j_id]. rewrite find_job_set. destruct (N.eqb id _); reflexivity.
  - intros t. rewrite Hjt, Hids. reflexivity.
  - apply Hval; [reflexivity | exact Hnd | reflexivity].
Qed.

Lemma snd_if_hq_with (b : bool) X Y Z : snd (if b then hq_with X Y Z else X) = snd X.
Proof. destruct b; reflexivity. Qed.

Lemma handle_submit_array_sim s jobsel ids entries rq prio cl tlim mf s' :
  HOK (hq_of s) -> handle_submit_array s jobsel ids entries rq prio cl tlim mf = Ok s' ->
  SimF (List.map (fun i => Event.mkTS i (jcrash cl) []) (array_ids (fst s) jobsel ids entries)) s s'.
Proof.
  intros H Hc. unfold handle_submit_array in Hc.
  match type of Hc with (match ?x with Some _ => _ | None => _ end) = _ => destruct x end;
    [inversion Hc; subst; apply SimF_emit_quiet; reflexivity|].
  apply bind_ok in Hc. destruct Hc as ([acc s1] & Hr & Hc).
  destruct acc as [[[jid is_new] ids']|].
  - cbv zeta in Hc.
    match type of Hc with context [get_or_create_rq ?sx rq] => set (s3 := sx) in *; destruct (get_or_create_rq s3 rq) as [s4 rqi] eqn:Erq end.
    pose proof (get_or_create_rq_snd s3 rq) as S4. rewrite Erq in S4. cbn [fst] in S4.
    pose proof (get_or_create_rq_keeps _ _ _ _ Erq) as E4.
    inv_binds Hc.
    destruct jobsel as [j0|].
    + destruct (find_job (hq_jobs s) j0) as [j|] eqn:Ef; [|inversion Hr].
      destruct (negb (j_open j)) eqn:Eo; [inversion Hr|]. inversion Hr; subst jid is_new ids' s1. clear Hr.
      apply Bool.negb_false_iff in Eo.
      unfold array_ids. change (h_jobs (s_hq (fst s))) with (hq_jobs s). rewrite Ef.
      eapply submit_tail_sim; [rewrite S4; reflexivity | eassumption | eassumption|].
      eapply submit_open_sim; [exact H | exact E4 | exact Ef | exact Eo | eassumption | eassumption | apply array_specs_ids |].
      intros m _ Hnd Hfr. apply validate_array; assumption.
    + inversion Hr; subst jid is_new ids' s1. clear Hr.
      eapply submit_tail_sim; [rewrite S4; reflexivity | eassumption | eassumption|].
      eapply submit_new_sim; [exact E4 | eassumption | eassumption | apply array_specs_ids |].
      intros m _ Hnd Hfr. apply validate_array; assumption.
  - assert (S1 : SimF (List.map (fun i => Event.mkTS i (jcrash cl) []) (array_ids (fst s) jobsel ids entries)) s s1).
    { destruct jobsel as [jid|]; [|inversion Hr].
      destruct (find_job (hq_jobs s) jid) as [j|]; [|inversion Hr; subst; apply SimF_refl].
      destruct (negb (j_open j)); inversion Hr; subst; apply SimF_emit_quiet; reflexivity. }
    eapply SimF_trans; [exact S1|].
    destruct jobsel; [match type of Hc with (match ?x with Some _ => _ | None => _ end) = _ => destruct x end|];
      inversion Hc; subst; try apply SimF_refl; apply SimF_emit_quiet; reflexivity.
Qed.

Lemma validate_graph_specs (m : Event.map Gen.GTask) jt ts :
  (forall d, Event.mem d m = match jt_find jt d with Some _ => true | None => false end) ->
  Server.validate_graph jt [] ts = None ->
  (forall i, In i (List.map gt_id ts) -> Event.mem i m = false) ->
  Restore.validate m (List.map spec_of_gtask ts) = true.
Proof.
  intros Hm Hv Hfr. unfold Restore.validate. apply andb_true_intro. split; [|eapply validate_graph_sys; eassumption].
  apply forallb_forall. intros x Hx. apply in_map_iff in Hx. destruct Hx as (g & <- & Hg). cbn [spec_of_gtask Event.ts_id].
  rewrite Hfr; [reflexivity|]. apply in_map. exact Hg.
Qed.

Lemma handle_submit_graph_sim s jobsel rqs ts mf s' :
  HOK (hq_of s) -> handle_submit_graph s jobsel rqs ts mf = Ok s' -> SimF (List.map spec_of_gtask ts) s s'.
Proof.
  intros H Hc. unfold handle_submit_graph in Hc. cbv zeta in Hc.
  apply bind_ok in Hc. destruct Hc as (v1 & Hv1 & Hc).
  match type of Hc with (match ?x with Some _ => _ | None => _ end) = _ => destruct x eqn:Ev end;
    [inversion Hc; subst; apply SimF_emit_quiet; reflexivity|].
  assert (Hvg : Server.validate_graph (match (match jobsel with Some j => find_job (hq_jobs s) j | None => None end) with Some j => j_tasks j | None => [] end) [] ts = None)
    by (destruct v1; [discriminate | exact Ev]).
  apply bind_ok in Hc. destruct Hc as ([acc s1] & Hr & Hc).
  destruct acc as [[jid is_new]|].
  - match type of Hc with context [fold_left ?f rqs (?sx, [])] => set (s3 := sx) in *; destruct (fold_left f rqs (s3, [])) as [s4 rqis] eqn:Erq end.
    pose proof (fold_rqs_same _ _ _ _ _ Erq) as E4. pose proof (fold_rqs_snd _ _ _ _ _ Erq) as S4.
    inv_binds Hc.
    assert (Hids : List.map Event.ts_id (List.map spec_of_gtask ts) = List.map gt_id ts) by (rewrite map_map; reflexivity).
    destruct jobsel as [j0|].
    + destruct (find_job (hq_jobs s) j0) as [j|] eqn:Ef; [|inversion Hr].
      destruct (negb (j_open j)) eqn:Eo; [inversion Hr|]. inversion Hr; subst jid is_new s1. clear Hr.
      apply Bool.negb_false_iff in Eo.
      eapply submit_tail_sim; [rewrite S4; reflexivity | eassumption | eassumption|].
      eapply submit_open_sim; [exact H | exact E4 | exact Ef | exact Eo | eassumption | eassumption | exact Hids|].
      intros m Hm _ Hfr. eapply validate_graph_specs; eassumption.
    + inversion Hr; subst jid is_new s1. clear Hr.
      eapply submit_tail_sim; [rewrite S4; reflexivity | eassumption | eassumption|].
      eapply submit_new_sim; [exact E4 | eassumption | eassumption | exact Hids|].
      intros m Hm _ Hfr. exact (validate_graph_specs m [] ts Hm Hvg Hfr).
  - assert (S1 : SimF (List.map spec_of_gtask ts) s s1).
    { destruct jobsel as [jid|]; [|inversion Hr].
      destruct (find_job (hq_jobs s) jid) as [j|]; [|inversion Hr; subst; apply SimF_emit_quiet; reflexivity].
      destruct (negb (j_open j)); inversion Hr; subst; apply SimF_emit_quiet; reflexivity. }
    inversion Hc; subst. exact S1.
Qed.

Lemma handle_open_sim specs s mf s' : handle_open s mf = Ok s' -> SimF specs s s'.
Proof.
  intros Hc. unfold handle_open in Hc. inversion Hc; subst s'. clear Hc.
  eexists. split; [unfold emit, hq_with; cbn [snd fst]; rewrite <- app_assoc; reflexivity|].
  unfold jevents_of_outs. cbn [flat_map jout jev app]. rewrite !emit_hq.
  change (hq_counter s) with (h_counter (hq_of s)).
  apply ev_open_new with (mf := mf).
  - intros id. unfold hq_of, hq_with, hq_jobs. cbn. apply find_job_set.
  - reflexivity.
Qed.

Lemma handle_close_sim specs s jid s' : HOK (hq_of s) -> handle_close s jid = Ok s' -> SimF specs s s'.
Proof.
  intros H Hc. unfold handle_close in Hc.
  destruct (find_job (hq_jobs s) jid) as [j|] eqn:Ef; [|injection Hc as <-; apply SimF_emit_quiet; reflexivity].
  destruct (j_open j) eqn:Eo; [|injection Hc as <-; apply SimF_emit_quiet; reflexivity].
  inv_bind Hc. injection Hb0 as <-.
  pose proof (find_job_id _ _ _ Ef) as Hid. assert (Hok : JOK j) by (apply H; eapply find_job_in; exact Ef).
  pose proof (open_not_completed _ Hok Eo) as Hc0.
  eapply SimF_trans; [|apply SimF_emit_quiet; reflexivity].
  eapply set_job_check_sim; [exact Hb | exact Hid | | | exact Hc0].
  - subst jid. eapply ev_close; [exact Hok | exact Ef | exact Eo | apply UPD_set | | | ]; reflexivity.
  - destruct Hok as [Ss R F X C A Cm]. constructor; cbn; auto. rewrite Hc0. discriminate.
Qed.

Lemma handle_cancel_sim specs s jid s' : HOK (hq_of s) -> handle_cancel s jid = Ok s' -> SimF specs s s'.
Proof.
  intros H Hc. unfold handle_cancel in Hc.
  destruct (find_job (hq_jobs s) jid) as [j|] eqn:Ef; [|inversion Hc; subst; apply SimF_emit_quiet; reflexivity].
  destruct (non_finished_task_ids j) as [|i0 ir] eqn:En; [inversion Hc; subst; apply SimF_emit_quiet; reflexivity|].
  inv_binds Hc. inversion Hc; subst s'.
  match goal with X : on_cancel_tasks _ _ = Ok ?s1, Y : set_cancel_state ?s1 _ _ = Ok ?s2 |- _ =>
    eapply (SimF_trans _ s s1); [apply SimF_same; [eapply on_cancel_tasks_hq; exact X | eapply on_cancel_tasks_snd; exact X]|];
    eapply (SimF_trans _ s1 s2); [eapply set_cancel_state_sim; [rewrite (on_cancel_tasks_hq _ _ _ X); exact H | exact Y]|] end.
  apply SimF_emit_quiet. reflexivity.
Qed.

Lemma find_job_del' js id k : find_job (del_job js id) k = if N.eqb k id then None else find_job js k.
Proof.
  unfold del_job. induction js as [|h r IH]; cbn [filter find_job]; [destruct (N.eqb k id); reflexivity|].
  destruct (N.eqb id (j_id h)) eqn:E1; cbn [negb find_job].
  - rewrite IH. apply N.eqb_eq in E1. subst id. destruct (N.eqb k (j_id h)); reflexivity.
  - rewrite IH. destruct (N.eqb k (j_id h)) eqn:E2; [|reflexivity].
    apply N.eqb_eq in E2. subst k. rewrite N.eqb_sym, E1. reflexivity.
Qed.

Lemma handle_forget_sim specs s jid s' : HOK (hq_of s) -> handle_forget s jid = Ok s' -> SimF specs s s'.
Proof.
  intros H Hc. unfold handle_forget in Hc.
  destruct (find_job (hq_jobs s) jid) as [j|] eqn:Ef; [|inversion Hc; subst; apply SimF_emit_quiet; reflexivity].
  assert (Hok : JOK j) by (apply H; eapply find_job_in; exact Ef).
  rewrite (has_no_active_ok _ Hok) in Hc. cbn [bind] in Hc.
  destruct (negb (j_open j) && _) eqn:E; [|inversion Hc; subst; apply SimF_emit_quiet; reflexivity].
  inversion Hc; subst s'. clear Hc.
  apply (SimF_step specs s _ (OResp (RForget 1 0))); [reflexivity|]. cbn [jout]. rewrite emit_hq.
  intros g [HJ HM]. cbn [lrun]. split; [|exact HM].
  intros id. unfold hq_of, hq_with, hq_jobs. cbn [fst s_hq with_hq h_jobs]. rewrite find_job_del'.
  destruct (N.eqb id jid) eqn:Ei; [|exact (HJ id)]. apply N.eqb_eq in Ei. subst id.
  specialize (HJ jid). change (h_jobs (hq_of s)) with (hq_jobs s) in HJ. rewrite Ef in HJ.
  destruct (j_completed j); [rewrite HJ; exact I|]. destruct HJ as (gj & Hl & HR). rewrite Hl.
  apply andb_prop in E. destruct E as [E1 E2]. apply Bool.negb_true_iff in E1. apply andb_prop in E2. destruct E2 as [E2 E3].
  eapply JRel_terminated; [exact HR | exact E1 | lia | lia].
Qed.

Theorem step_sim s o s' outs :
  HOK (s_hq s) -> step s o = Ok (s', outs) -> SimF (submit_specs s o) (s, []) (s', outs).
Proof.
  intros H Hc. change (HOK (hq_of (s, @nil out))) in H.
  destruct o; cbn [step] in Hc.
  - unfold on_new_worker in Hc. inversion Hc; subst. clear Hc.
    eexists. split; [cbn [snd app]; reflexivity|]. unfold jevents_of_outs. cbn [flat_map jout jev app]. apply ev_wconn.
  - destruct (find_proc _ w); [|discriminate]. eapply on_remove_worker_sim; eassumption.
  - destruct (bad_submit_lengths _ _); [inversion Hc; subst; apply (SimF_emit_quiet _ (s', []) (OResp (RSubmitErr 6 0))); reflexivity|].
    eapply handle_submit_array_sim; eassumption.
  - destruct (bad_graph_rq _ _); [inversion Hc; subst; apply (SimF_emit_quiet _ (s', []) (OResp _)); reflexivity|].
    destruct (dead_dep _ _ _); [inversion Hc; subst; apply (SimF_emit_quiet _ (s', []) (OResp _)); reflexivity|].
    eapply handle_submit_graph_sim; eassumption.
  - eapply handle_open_sim; eassumption.
  - eapply handle_close_sim; eassumption.
  - eapply handle_cancel_sim; eassumption.
  - eapply handle_forget_sim; eassumption.
  - destruct (find_proc _ w) as [p|]; [|discriminate]. destruct (p_down p); [discriminate|].
    inv_binds Hc. injection Hc as <- <-.
    eapply SimF_silent; [reflexivity | reflexivity | apply jevents_launches].
  - destruct (find_proc _ w) as [p|]; [|discriminate]. destruct (p_up p) as [|m rest]; [discriminate|].
    eapply SimF_trans;
      [apply (SimF_silent _ (s, []) (with_procs s (set_proc (s_procs s) (wp_up p rest)), [OUp w m]) [OUp w m]); reflexivity|].
    destruct m.
    + eapply on_task_update_sim; [exact H | exact Hc].
    + apply SimF_same; [eapply on_retract_response_same; exact Hc|].
      unfold on_retract_response in Hc. destruct (retract_response_states _ w ids []) as [c' groups].
      apply bind_ok in Hc. destruct Hc as (s2 & Hc & H2).
      match goal with |- snd ?r = _ => assert (Es : snd r = snd s2) by (destruct (retract_wakes _ _ _ _); inversion H2; subst; reflexivity) end.
      rewrite Es, (send_redirected_snd _ _ _ Hc). reflexivity.
  - destruct (c_flag (s_core s)); [|discriminate].
    apply SimF_same; [eapply run_scheduling_same; exact Hc | eapply run_scheduling_snd; exact Hc].
  - destruct (find_proc _ w) as [p|]; [|discriminate]. inv_binds Hc. injection Hc as <- <-.
    eapply SimF_silent; [reflexivity | reflexivity | apply jevents_launches].
  - destruct (find_proc _ w) as [p|]; [|discriminate]. inversion Hc; subst. apply SimF_same; reflexivity.
  - inversion Hc; subst. apply SimF_same; reflexivity.
  - inv_binds Hc. inversion Hc; subst. apply (SimF_emit_quiet _ (s', []) (OPrune _ _)). reflexivity.
Qed.
