(** Finding F28 / invariant MNR (RetractFree.v), part 1: the relation; the reactor, the
    server side, the single-node and prefill parts of a scheduling round (all satisfy [RS]).
    RSN: the worker a task is being retracted from is connected and in single-node mode.
    Technique of InvWX1.v: a relation [RS c c'] between the core before and after a function -
    every task of [c'] has the id and state of a task of [c], or a state that is fine in [c']
    ("okS": for [Retracting w], worker [w] is connected and in single-node mode); workers in
    single-node mode stay so.  Every function except the multi-node placement of a scheduling round
    satisfies it (a task enters [Retracting w] only from [Prefilled w], and the function that does
    it has just removed the task from the prefill set of [w], which exists only in single-node
    mode). *)
From HQ Require Import Base.Prelude Cluster.Types Cluster.Core Cluster.Reactor Cluster.Worker Cluster.Server Cluster.Sys Cluster.ProofsJob Cluster.ProofsMore Cluster.ProofsStep Cluster.BijBase Cluster.BijCore Cluster.BijHq Cluster.BijSt Cluster.InvWBase Cluster.InvWCore Cluster.InvWX1.
From HQ Require Import Cluster.ReactSplit.
From HQ Require Import Cluster.StepShape.
From HQ Require Import Cluster.ModelFacts.
From Coq Require Import ZArith Lia Sorting.Sorted.
Local Open Scope N_scope.

Arguments N.add : simpl never.
Arguments N.sub : simpl never.

Definition snk (k : sworker) : Prop := exists a p f, w_assign k = Sn a p f.
Definition snw (c : core) (w : wid) : Prop := exists wk, find_worker (c_workers c) w = Some wk /\ snk wk.
Definition RSN (c : core) : Prop :=
  forall t w, In t (c_tasks c) -> t_state t = Retracting w -> snw c w.

Definition okS (c : core) (s : tstate) : Prop :=
  match s with Retracting w => snw c w | _ => True end.
Definition JS (c : core) : Prop := forall t, In t (c_tasks c) -> okS c (t_state t).

Lemma JS_RSN c : JS c <-> RSN c.
Proof.
  split.
  - intros H t w Hin E. specialize (H t Hin). rewrite E in H. exact H.
  - intros H t Hin. destruct (t_state t) eqn:E; cbn; try exact I. exact (H t _ Hin E).
Qed.

Definition DS (c c' : core) : Prop := forall w, snw c w -> snw c' w.
Definition TS (c c' : core) : Prop :=
  forall t', In t' (c_tasks c') ->
    (exists t, In t (c_tasks c) /\ t_id t = t_id t' /\ t_state t = t_state t') \/ okS c' (t_state t').
Definition RS (c c' : core) : Prop := TS c c' /\ DS c c'.

Lemma okS_DS c c' s : DS c c' -> okS c s -> okS c' s.
Proof. intros D. destruct s; cbn; auto. Qed.

Lemma RS_refl c : RS c c.
Proof. split; [|intros w H; exact H]. intros t Hin. left. exists t. auto. Qed.

Lemma RS_trans c1 c2 c3 : RS c1 c2 -> RS c2 c3 -> RS c1 c3.
Proof.
  intros [T1 D1] [T2 D2]. split; [|intros w H; apply D2, D1, H].
  intros t3 H3. destruct (T2 t3 H3) as [(t2 & H2 & Ei & Es)|Ho].
  - destruct (T1 t2 H2) as [(t1 & H1 & Ei1 & Es1)|Ho].
    + left. exists t1. split; [exact H1|]. split; congruence.
    + right. rewrite <- Es. eapply okS_DS; eassumption.
  - right. exact Ho.
Qed.

Lemma JS_RS c c' : JS c -> RS c c' -> JS c'.
Proof.
  intros HJ [T D] t Hin. destruct (T t Hin) as [(t0 & H0 & _ & Es)|X]; [|exact X].
  rewrite <- Es. eapply okS_DS; [exact D | apply HJ; exact H0].
Qed.

Lemma snk_insert_sn wk id r wk' : insert_sn_task wk id r = Ok wk' -> snk wk'.
Proof. unfold insert_sn_task. destruct (w_assign wk); [|discriminate]. destruct (tid_mem _ _); [discriminate|]. intros H. inversion H. eexists _, _, _. reflexivity. Qed.
Lemma snk_insert_prefill wk id wk' : insert_prefill_task wk id = Ok wk' -> snk wk'.
Proof. unfold insert_prefill_task. destruct (w_assign wk); [|discriminate]. destruct (tid_mem _ _); [discriminate|]. intros H. inversion H. eexists _, _, _. reflexivity. Qed.
Lemma snk_remove_prefill wk id wk' : remove_prefill_task wk id = Ok wk' -> snk wk' /\ snk wk.
Proof. unfold remove_prefill_task. destruct (w_assign wk) eqn:E; [|discriminate]. destruct (tid_mem _ _); [|discriminate]. intros H. inversion H. split; eexists _, _, _; [reflexivity | exact E]. Qed.
Lemma snk_started wk id r wk' : task_from_prefilled_to_started wk id r = Ok wk' -> snk wk'.
Proof. unfold task_from_prefilled_to_started. destruct (w_assign wk); [|discriminate]. destruct (negb _); [discriminate|]. destruct (tid_mem _ _); [discriminate|]. intros H. inversion H. eexists _, _, _. reflexivity. Qed.
Lemma snk_remove_sn wk id r wk' : remove_sn_task wk id r = Ok wk' -> snk wk'.
Proof. unfold remove_sn_task. destruct (w_assign wk); [|discriminate]. destruct (tid_mem _ _); [|discriminate]. intros H. inversion H. eexists _, _, _. reflexivity. Qed.
Lemma snk_reset wk : snk (reset_mn_task wk).
Proof. eexists _, _, _. reflexivity. Qed.

Lemma DS_eq c c' : c_workers c' = c_workers c -> DS c c'.
Proof. intros E w. unfold snw. rewrite E. auto. Qed.
Lemma DS_set1 c c' k : c_workers c' = set_worker (c_workers c) k -> snk k -> DS c c'.
Proof.
  intros E Hk w (wk & Hw & Hs). unfold snw. rewrite E, find_set_worker.
  destruct (N.eqb w (w_id k)); [exists k; auto | exists wk; auto].
Qed.
Lemma DS_set_keep c c' k k0 w : c_workers c' = set_worker (c_workers c) k -> get_worker (c_workers c) w = Ok k0 ->
  w_id k = w_id k0 -> w_assign k = w_assign k0 -> DS c c'.
Proof.
  intros E Hg Ei Ea x (wk & Hw & Hs). apply get_worker_find in Hg. destruct (find_worker_some _ _ _ Hg) as [_ E0].
  unfold snw. rewrite E, find_set_worker. destruct (N.eqb x (w_id k)) eqn:Ex; [|exists wk; auto].
  apply N.eqb_eq in Ex. exists k. split; [reflexivity|]. rewrite Ex, Ei, E0, Hg in Hw. inversion Hw; subst wk.
  destruct Hs as (a & p & f & Hs). exists a, p, f. congruence.
Qed.

Lemma DS_set2 c c' k1 k2 : c_workers c' = set_worker (set_worker (c_workers c) k1) k2 -> snk k1 -> snk k2 -> DS c c'.
Proof.
  intros E H1 H2 w (wk & Hw & Hs). unfold snw. rewrite E, !find_set_worker.
  destruct (N.eqb w (w_id k2)); [exists k2; auto|]. destruct (N.eqb w (w_id k1)); [exists k1; auto | exists wk; auto].
Qed.
Ltac snk_solve :=
  match goal with
  | |- snk (reset_mn_task _) => apply snk_reset
  | H : insert_sn_task _ _ _ = Ok ?k |- snk ?k => exact (snk_insert_sn _ _ _ _ H)
  | H : insert_prefill_task _ _ = Ok ?k |- snk ?k => exact (snk_insert_prefill _ _ _ H)
  | H : remove_prefill_task _ _ = Ok ?k |- snk ?k => exact (proj1 (snk_remove_prefill _ _ _ H))
  | H : task_from_prefilled_to_started _ _ _ = Ok ?k |- snk ?k => exact (snk_started _ _ _ _ H)
  | H : remove_sn_task _ _ _ = Ok ?k |- snk ?k => exact (snk_remove_sn _ _ _ _ H)
  | |- snk _ => eexists _, _, _; reflexivity
  end.
Ltac ds := first [apply DS_eq; reflexivity | eapply DS_set1; [reflexivity | snk_solve]
                 | eapply DS_set_keep; [reflexivity | eassumption | reflexivity | reflexivity]
                 | eapply DS_set2; [reflexivity | snk_solve | snk_solve]].

Lemma RS_tasks c c' : c_tasks c' = c_tasks c -> DS c c' -> RS c c'.
Proof. intros E D. split; [|exact D]. intros t H. left. exists t. rewrite <- E. auto. Qed.

Lemma RS_set_ok c c' x : c_tasks c' = set_task (c_tasks c) x -> DS c c' -> okS c (t_state x) -> RS c c'.
Proof.
  intros E D Ho. split; [|exact D]. intros t H. rewrite E in H. destruct (set_task_in _ _ _ H) as [->|Hin].
  - right. eapply okS_DS; eassumption.
  - left. exists t. auto.
Qed.

Lemma RS_set_same c c' x t : c_tasks c' = set_task (c_tasks c) x -> DS c c' -> In t (c_tasks c) ->
  t_id x = t_id t -> t_state x = t_state t -> RS c c'.
Proof.
  intros E D Hin Ei Es. split; [|exact D]. intros t' H. rewrite E in H. destruct (set_task_in _ _ _ H) as [->|Hin'].
  - left. exists t. auto.
  - left. exists t'. auto.
Qed.

Lemma snw_get c w wk : get_worker (c_workers c) w = Ok wk -> snk wk -> snw c w.
Proof. intros H Hs. exists wk. split; [apply get_worker_find; exact H | exact Hs]. Qed.

Lemma retract_states_RS ids : forall c acc c' acc', retract_states c ids acc = Ok (c', acc') -> RS c c'.
Proof.
  induction ids as [|id r IH]; cbn [retract_states]; intros c acc c' acc' H; [inversion H; subst; apply RS_refl|].
  apply bind_ok in H. destruct H as (t & Ht & H).
  destruct (t_state t) eqn:Est; try discriminate.
  apply bind_ok in H. destruct H as (wk & Hw & H). apply bind_ok in H. destruct H as (wk' & H0 & H).
  eapply RS_trans; [|eapply IH; exact H].
  eapply (RS_set_ok _ _ (with_state t (Retracting w))); [reflexivity | ds | cbn; eapply snw_get; [exact Hw | exact (proj2 (snk_remove_prefill _ _ _ H0))]].
Qed.

Lemma process_retracted_RS s r s' : process_retracted s r = Ok s' -> RS (core_of s) (core_of s').
Proof.
  unfold process_retracted. intros H. destruct r; [inversion H; subst; apply RS_refl|].
  apply bind_ok in H. destruct H as ([c' groups] & H1 & H). rewrite (send_all_core _ _ _ H).
  eapply retract_states_RS; exact H1.
Qed.

Lemma try_remove_redirection_RS c t c' : try_remove_redirection c t = Ok c' -> RS c c'.
Proof.
  unfold try_remove_redirection. destruct (find_redirect _ _) as [[w rv]|]; intros H; inv_binds H; inversion H; subst;
    (apply RS_tasks; [reflexivity | ds]).
Qed.

Lemma reset_mn_workers_RS ws : forall c id c', reset_mn_workers c ws id = Ok c' -> RS c c'.
Proof.
  induction ws as [|w r IH]; cbn [reset_mn_workers]; intros c id c' H; [inversion H; subst; apply RS_refl|].
  apply bind_ok in H. destruct H as (wk & ?X & H). destruct (w_assign wk); [discriminate|].
  destruct (tid_eqb t id); [|discriminate]. eapply RS_trans; [|eapply IH; exact H]. apply RS_tasks; [reflexivity | ds].
Qed.

Lemma reset_mn_all_RS ws : forall c c', reset_mn_all c ws = Ok c' -> RS c c'.
Proof.
  induction ws as [|w r IH]; cbn [reset_mn_all]; intros c c' H; [inversion H; subst; apply RS_refl|].
  apply bind_ok in H. destruct H as (wk & ?X & H). eapply RS_trans; [|eapply IH; exact H]. apply RS_tasks; [reflexivity | ds].
Qed.

Lemma released_RS c id rq t c1 : released c id rq t c1 -> RS c c1.
Proof.
  intros [Hs | w wk wk' Hs Hw Hrm | w q q' wk wk' Hs Hq Hq' Hw Hrm | w c2 Hs H1 | ws c2 Hs H1 | ws c2 Hs H1].
  - apply RS_refl.
  - apply RS_tasks; [reflexivity | ds].
  - apply RS_tasks; [reflexivity | ds].
  - eapply try_remove_redirection_RS; exact H1.
  - eapply reset_mn_all_RS; exact H1.
  - eapply reset_mn_workers_RS; exact H1.
Qed.

Lemma cancel_release_RS ids : forall s tu ru s' tu' ru', cancel_release s ids tu ru = Ok (s', tu', ru') -> RS (core_of s) (core_of s').
Proof.
  induction ids as [|id r IH]; intros s tu ru s' tu' ru' H; [cbn [cancel_release] in H; inversion H; subst; apply RS_refl|].
  destruct (cancel_release_step _ _ _ _ _ _ H) as [[_ H1] | (t & rq & c1 & s1 & tu1 & ru1 & _ & _ & _ & Hrel & E & H1)]; [eapply IH; exact H1|].
  eapply RS_trans; [exact (released_RS _ _ _ _ _ Hrel)|]. eapply RS_trans; [|eapply IH; exact H1].
  destruct E as [-> | ->]; [apply RS_refl | apply RS_tasks; [reflexivity | ds]].
Qed.

Lemma remove_task_RS c id c' stt : remove_task c id = Ok (c', stt) -> RS c c'.
Proof.
  intros H. unfold remove_task in H. destruct (find_task (c_tasks c) id) as [t|]; [|discriminate].
  assert (R0 : forall c1, c_tasks c1 = del_task (c_tasks c) id -> c_workers c1 = c_workers c -> RS c c1).
  { intros c1 E Ew. split; [|apply DS_eq; exact Ew]. intros t' Hin. rewrite E in Hin. left. exists t'. split; [eapply del_task_in; exact Hin | auto]. }
  destruct (t_state t); try (inversion H; subst; apply R0; reflexivity).
  apply bind_ok in H. destruct H as (c2 & H2 & H).
  assert (E2 : c_tasks c2 = del_task (c_tasks c) id /\ c_workers c2 = c_workers c).
  { destruct (N.eqb unfinished_deps 0); [inv_binds H2|]; inversion H2; subst; auto. }
  destruct E2 as [T2 W2].
  destruct (N.ltb 0 unfinished_deps); [|inversion H; subst; apply R0; assumption].
  apply bind_ok in H. destruct H as (ts & Hr & H). inversion H; subst.
  eapply RS_trans; [apply (R0 c2); assumption|].
  split; [|apply DS_eq; reflexivity]. intros t' Hin. left. destruct (remove_consumer_from_in _ _ _ _ Hr t' Hin) as (t0 & A & B & C & _). exists t0. auto.
Qed.

Lemma remove_tasks_batched_RS ids : forall c c', remove_tasks_batched c ids = Ok c' -> RS c c'.
Proof.
  induction ids as [|id r IH]; cbn [remove_tasks_batched]; intros c c' H; [inversion H; subst; apply RS_refl|].
  apply bind_ok in H. destruct H as ([c1 stt] & H1 & H). eapply RS_trans; [eapply remove_task_RS; exact H1 | eapply IH; exact H].
Qed.

Lemma remove_waiting_consumers_RS l : forall c c', remove_waiting_consumers c l = Ok c' -> RS c c'.
Proof.
  induction l as [|id r IH]; cbn [remove_waiting_consumers]; intros c c' H; [inversion H; subst; apply RS_refl|].
  apply bind_ok in H. destruct H as ([c1 stt] & H1 & H). destruct stt; try discriminate.
  eapply RS_trans; [eapply remove_task_RS; exact H1 | eapply IH; exact H].
Qed.

Lemma on_cancel_tasks_RS s ids s' : on_cancel_tasks s ids = Ok s' -> RS (core_of s) (core_of s').
Proof.
  intros H. unfold on_cancel_tasks in H.
  apply bind_ok in H. destruct H as ([[s1 tu] ru] & H1 & H). apply bind_ok in H. destruct H as (c' & H2 & H).
  rewrite (send_all_core _ _ _ H).
  eapply RS_trans; [eapply cancel_release_RS; exact H1 | eapply remove_tasks_batched_RS; exact H2].
Qed.


Lemma task_failed_RS s w id k s' : task_failed s w id k = Ok s' -> RS (core_of s) (core_of s').
Proof.
  intros H. destruct (find_task (c_tasks (core_of s)) id) as [t|] eqn:Ef.
  2:{ unfold task_failed in H. rewrite Ef in H. inversion H; subst. apply RS_refl. }
  destruct (task_failed_released _ _ _ _ _ _ H Ef) as (rq & c1 & _ & Hrel & csm & c2 & c3 & stt & s1 & ids & _ & H2 & H3 & _ & H4 & H5).
  assert (R1 : RS (core_of s) c1) by (destruct Hrel as [Hrel | (-> & _)]; [exact (released_RS _ _ _ _ _ Hrel) | apply RS_refl]).
  pose proof (process_task_failed_core _ _ _ _ _ _ H4) as C4. cbn in C4.
  assert (R3 : RS (core_of s) (core_of s1)).
  { rewrite C4. eapply RS_trans; [exact R1|]. eapply RS_trans; [eapply remove_waiting_consumers_RS; exact H2 | eapply remove_task_RS; exact H3]. }
  destruct ids; [subst s'; exact R3|].
  eapply RS_trans; [exact R3 | eapply on_cancel_tasks_RS; exact H5].
Qed.

Lemma wake_consumers_RS csm : forall c ret c' ret', wake_consumers c csm ret = Ok (c', ret') -> RS c c'.
Proof.
  induction csm as [|x r IH]; cbn [wake_consumers]; intros c ret c' ret' H; [inversion H; subst; apply RS_refl|].
  apply bind_ok in H. destruct H as (t & Ht & H).
  destruct (t_state t) as [n| | | | | |]; try discriminate. destruct (N.eqb n 0); [discriminate|].
  assert (R1 : forall qs, RS c (with_queues (upd_task c (with_state t (Waiting (n - 1)))) qs)).
  { intros qs. eapply (RS_set_ok _ _ (with_state t (Waiting (n - 1)))); [reflexivity | ds | exact I]. }
  destruct (N.eqb (n - 1) 0).
  - apply bind_ok in H. destruct H as ([qs rt] & ?X & H). eapply RS_trans; [apply (R1 qs) | eapply IH; exact H].
  - eapply RS_trans; [apply (R1 (c_queues c)) | eapply IH; exact H].
Qed.

Lemma task_finished_RS s w id s' b : task_finished s w id = Ok (s', b) -> RS (core_of s) (core_of s').
Proof.
  intros H. destruct (find_task (c_tasks (core_of s)) id) as [t|] eqn:Ef.
  2:{ unfold task_finished in H. rewrite Ef in H. inversion H; subst. apply RS_refl. }
  destruct (task_finished_released _ _ _ _ _ _ H Ef) as (rq & c1 & s1 & c3 & retracted & s2 & c4 & _ & Hrel & Hf & Hw & Hr & Hrm & -> & _).
  destruct (process_task_finished_active _ _ _ Hf) as [C1 _]. unfold core_same in C1. cbn in C1.
  change (RS (core_of s) c4).
  eapply RS_trans; [exact (released_RS _ _ _ _ _ Hrel)|].
  eapply RS_trans; [eapply (RS_set_ok c1 (upd_task c1 (with_state t Finished)) (with_state t Finished)); [reflexivity | ds | exact I]|].
  rewrite <- C1. eapply RS_trans; [eapply wake_consumers_RS; exact Hw|].
  eapply RS_trans; [exact (process_retracted_RS (st_core s1 c3) _ _ Hr) | eapply remove_task_RS; exact Hrm].
Qed.

Lemma task_running_RS s w id rv s' b : task_running s w id rv = Ok (s', b) -> RS (core_of s) (core_of s').
Proof.
  intros H. unfold task_running in H.
  destruct (find_task (c_tasks (core_of s)) id) as [t|]; [|inversion H; subst; apply RS_refl].
  apply bind_ok in H. destruct H as (rq & ?X & H). apply bind_ok in H. destruct H as ([s1 ws] & H1 & H).
  apply bind_ok in H. destruct H as (s2 & H2 & H). inversion H; subst s' b.
  destruct (process_task_started_active _ _ _ _ _ _ H2) as [C2 _]. unfold core_same in C2. rewrite C2. clear H2 C2 H.
  destruct (t_state t) as [n|w1 rv1|w1|w1|w1 rv1|wsx|]; try discriminate.
  - destruct (negb (N.eqb w1 w)); [discriminate|]. destruct (negb (N.eqb rv1 rv)); [discriminate|]. inversion H1; subst s1 ws.
    eapply (RS_set_ok _ _ (with_state t (Running w rv))); [reflexivity | ds | exact I].
  - destruct (negb (N.eqb w1 w)); [discriminate|]. inv_binds H1. inversion H1; subst s1 ws.
    eapply (RS_set_ok _ _ (with_state t (Running w rv))); [reflexivity | ds | exact I].
  - destruct (negb (N.eqb w1 w)); [discriminate|].
    apply bind_ok in H1. destruct H1 as (c1 & Hc1 & H1). inv_binds H1. inversion H1; subst s1 ws.
    eapply RS_trans; [|eapply RS_trans; [eapply try_remove_redirection_RS; exact Hc1|]].
    + apply RS_tasks; [reflexivity | ds].
    + eapply (RS_set_ok _ _ (with_state t (Running w rv))); [reflexivity | ds | exact I].
  - destruct wsx; [discriminate|]. destruct (N.eqb w0 w); [|discriminate]. inversion H1; subst s1 ws. apply RS_refl.
Qed.

Lemma requeue_RS s t c1 s' b :
  (do (qs, ret) <- add_ready_task (c_queues c1) (with_state t (Waiting 0));
   do s'' <- process_retracted (st_core s (with_queues (upd_task c1 (with_state t (Waiting 0))) qs)) ret;
   Ok (s'', true)) = Ok (s', b) -> RS c1 (core_of s').
Proof.
  intros H. apply bind_ok in H. destruct H as ([qs ret] & ?X & H). apply bind_ok in H. destruct H as (s2 & Hr & H). inversion H; subst.
  eapply RS_trans; [|exact (process_retracted_RS _ _ _ Hr)].
  eapply (RS_set_ok _ _ (with_state t (Waiting 0))); [reflexivity | ds | exact I].
Qed.

Lemma task_reject_RS s w id rv s' b : task_reject s w id rv = Ok (s', b) -> RS (core_of s) (core_of s').
Proof.
  intros H. unfold task_reject in H. set (c := core_of s) in *.
  destruct (find_task (c_tasks c) id) as [t|]; [|inversion H; subst; apply RS_refl].
  apply bind_ok in H. destruct H as (wk & ?X & H). cbv zeta in H.
  match type of H with context [upd_worker c ?k] => set (wk1 := k) in * end.
  assert (R0 : RS c (upd_worker c wk1)).
  { apply RS_tasks; [reflexivity|]. eapply DS_set_keep; [reflexivity | eassumption | |]; subst wk1; destruct rv; try destruct (nn_mem _ _); reflexivity. }
  apply bind_ok in H. destruct H as (rq & ?X & H).
  destruct (t_state t) as [n|w1 rv1|w1|w1|w1 rv1|wsx|];
    try (apply bind_ok in H; destruct H as (r0 & Hr0 & _); discriminate).
  - apply bind_ok in H. destruct H as ([c1 cont] & Hr & H).
    assert (R1 : RS (upd_worker c wk1) c1).
    { destruct (negb (N.eqb w w1)); [inversion Hr; subst; apply RS_refl|].
      destruct rv as [v|]; [|inversion Hr; subst; apply RS_refl].
      destruct (N.eqb v rv1); [|inversion Hr; subst; apply RS_refl].
      inv_binds Hr. inversion Hr; subst. apply RS_tasks; [reflexivity | ds]. }
    eapply RS_trans; [exact R0|]. eapply RS_trans; [exact R1|]. eapply requeue_RS; exact H.
  - apply bind_ok in H. destruct H as ([c1 cont] & Hr & H).
    assert (R1 : RS (upd_worker c wk1) c1) by (inv_binds Hr; inversion Hr; subst; apply RS_tasks; [reflexivity | ds]).
    eapply RS_trans; [exact R0|]. eapply RS_trans; [exact R1|]. eapply requeue_RS; exact H.
  - apply bind_ok in H. destruct H as ([c1 cont] & Hr & H).
    assert (E1 : c1 = upd_worker c wk1) by (destruct (negb (N.eqb w w1)); inversion Hr; reflexivity). subst c1.
    eapply RS_trans; [exact R0|].
    destruct cont.
    + destruct (find_redirect (c_redirects (upd_worker c wk1)) id) as [[target rvt]|].
      * apply bind_ok in H. destruct H as (s1 & Hs1 & H). inversion H; subst s' b.
        rewrite (send_worker_core _ _ _ _ Hs1).
        eapply (RS_set_ok _ _ (with_state t (Assigned target rvt))); [reflexivity | ds | exact I].
      * eapply requeue_RS; exact H.
    + inversion H; subst. apply RS_refl.
Qed.

Lemma request_enabled_RS s w rq rv s' : request_enabled s w rq rv = Ok s' -> RS (core_of s) (core_of s').
Proof.
  intros H. unfold request_enabled in H. apply bind_ok in H. destruct H as (wk & ?X & H). inversion H; subst s'.
  apply RS_tasks; [reflexivity | ds].
Qed.

Lemma apply_updates_RS us : forall s w need s' need', apply_updates s w us need = Ok (s', need') -> RS (core_of s) (core_of s').
Proof. exact (apply_updates_walk (fun a b : st => RS (core_of a) (core_of b)) (fun a => RS_refl _) (fun a b c => RS_trans _ _ _) task_finished_RS task_failed_RS task_running_RS task_reject_RS request_enabled_RS us). Qed.

Lemma on_task_update_RS s w us s' : on_task_update s w us = Ok s' -> RS (core_of s) (core_of s').
Proof.
  apply (on_task_update_walk (fun a b : st => RS (core_of a) (core_of b)) (fun a => RS_refl _) (fun a b c => RS_trans _ _ _) task_finished_RS task_failed_RS task_running_RS task_reject_RS request_enabled_RS).
  intros x. apply RS_tasks; [reflexivity | ds].
Qed.

Lemma retract_response_states_RS ids : forall c w acc c' acc', retract_response_states c w ids acc = (c', acc') -> RS c c'.
Proof.
  induction ids as [|id r IH]; cbn [retract_response_states]; intros c w acc c' acc' H; [inversion H; subst; apply RS_refl|].
  destruct (find_task (c_tasks c) id) as [t|]; [|eapply IH; exact H].
  destruct (t_state t); try (eapply IH; exact H).
  destruct (N.eqb w w0); [|eapply IH; exact H].
  destruct (find_redirect (c_redirects c) id) as [[target rv]|].
  - eapply RS_trans; [|eapply IH; exact H]. eapply (RS_set_ok _ _ (with_state t (Assigned target rv))); [reflexivity | ds | exact I].
  - eapply RS_trans; [|eapply IH; exact H]. eapply (RS_set_ok _ _ (with_state t (Waiting 0))); [reflexivity | ds | exact I].
Qed.

Lemma on_retract_response_RS s w ids s' : on_retract_response s w ids = Ok s' -> RS (core_of s) (core_of s').
Proof.
  unfold on_retract_response. intros H. destruct (retract_response_states _ w ids []) as [c' groups] eqn:E.
  apply bind_ok in H. destruct H as (s2 & H & H2).
  assert (X2 : RS (core_of s) (core_of s2)).
  { rewrite (send_redirected_core _ _ _ H). eapply retract_response_states_RS; exact E. }
  destruct (retract_wakes _ _ _ _); inversion H2; subst s'; clear H2; [|exact X2].
  eapply RS_trans; [exact X2|]. apply RS_tasks; [reflexivity | ds].
Qed.

Lemma on_new_worker_RS s rs g s' : on_new_worker s rs g = Ok s' -> RS (core_of s) (core_of s').
Proof. intros H. unfold on_new_worker in H. inversion H; subst s'. apply RS_tasks; [reflexivity | ds]. Qed.

Lemma register_deps_RS deps : forall c id kept count c' kept' count', register_deps c id deps kept count = (c', kept', count') -> RS c c'.
Proof.
  induction deps as [|d r IH]; cbn [register_deps]; intros c id kept count c' kept' count' H; [inversion H; subst; apply RS_refl|].
  destruct (find_task (c_tasks c) d) as [dep|] eqn:Ef; [|eapply IH; exact H].
  eapply RS_trans; [|eapply IH; exact H].
  eapply (RS_set_same _ _ (with_consumers dep (tid_insert id (t_consumers dep))) dep); [reflexivity | ds | eapply find_in; exact Ef | reflexivity | reflexivity].
Qed.

Lemma add_new_tasks_RS ts : forall c ret c' ret', add_new_tasks c ts ret = Ok (c', ret') -> RS c c'.
Proof.
  induction ts as [|t r IH]; cbn [add_new_tasks]; intros c ret c' ret' H; [inversion H; subst; apply RS_refl|].
  destruct (register_deps c (t_id t) (t_deps t) [] 0) as [[c1 kept] count] eqn:Er.
  pose proof (register_deps_RS _ _ _ _ _ _ _ _ Er) as R1.
  apply bind_ok in H. destruct H as ([c2 rt] & H2 & H).
  assert (R2 : RS c1 c2).
  { destruct (N.eqb count 0); [|inversion H2; subst; apply RS_refl].
    apply bind_ok in H2. destruct H2 as ([qs rt'] & ?X & H2). inversion H2; subst. apply RS_tasks; [reflexivity | ds]. }
  destruct (find_task (c_tasks c2) (t_id t)); [discriminate|].
  eapply RS_trans; [exact R1|]. eapply RS_trans; [exact R2|]. eapply RS_trans; [|eapply IH; exact H].
  eapply (RS_set_ok _ _ (with_state (with_deps t kept) (Waiting count))); [reflexivity | ds | exact I].
Qed.

Lemma on_new_tasks_RS s ts s' : on_new_tasks s ts = Ok s' -> RS (core_of s) (core_of s').
Proof.
  intros H. unfold on_new_tasks in H. destruct ts as [|t0 tr] eqn:Et; [inversion H; subst; apply RS_refl|]. rewrite <- Et in *. clear Et.
  apply bind_ok in H. destruct H as ([c' retracted] & Ha & H). apply bind_ok in H. destruct H as (s1 & Hr & H). inversion H; subst s'.
  eapply RS_trans; [eapply add_new_tasks_RS; exact Ha|].
  eapply RS_trans; [exact (process_retracted_RS (st_core s c') _ _ Hr)|]. apply RS_tasks; [reflexivity | ds].
Qed.

Lemma lost_prefilled_RS l : forall c c', lost_prefilled c l = Ok c' -> RS c c'.
Proof.
  induction l as [|id r IH]; cbn [lost_prefilled]; intros c c' H; [inversion H; subst; apply RS_refl|].
  apply bind_ok in H. destruct H as (t & ?X & H). apply bind_ok in H. destruct H as (q & ?X & H). apply bind_ok in H. destruct H as (q' & ?X & H).
  eapply RS_trans; [|eapply IH; exact H].
  eapply (RS_set_ok _ _ (with_state (with_inst t (t_inst t + 1)) (Waiting 0))); [reflexivity | ds | exact I].
Qed.

Lemma lost_assigned_RS l : forall c running ret c' running' ret', lost_assigned c l running ret = Ok (c', running', ret') -> RS c c'.
Proof.
  induction l as [|id r IH]; cbn [lost_assigned]; intros c running ret c' running' ret' H; [inversion H; subst; apply RS_refl|].
  apply bind_ok in H. destruct H as (t & Ht & H). apply get_task_find in Ht.
  apply bind_ok in H. destruct H as ([[c1 t1] running1] & Hr1 & H).
  apply bind_ok in H. destruct H as ([qs rt] & ?X & H).
  eapply RS_trans; [|eapply IH; exact H].
  assert (E1 : c_tasks c1 = c_tasks c /\ c_workers c1 = c_workers c /\ (t1 = t \/ t1 = with_state t (Waiting 0))).
  { destruct (t_state t); try (inversion Hr1; subst; auto; fail).
    destruct (find_redirect _ id); inversion Hr1; subst; auto. }
  destruct E1 as (Et & Ew & [-> | ->]).
  - eapply (RS_set_same _ _ (with_inst t (t_inst t + 1)) t); [cbn [c_tasks upd_task with_tasks with_queues]; rewrite Et; reflexivity
      | apply DS_eq; cbn [c_workers upd_task with_tasks with_queues]; exact Ew | eapply find_in; exact Ht | reflexivity | reflexivity].
  - eapply (RS_set_ok _ _ (with_inst (with_state t (Waiting 0)) (t_inst (with_state t (Waiting 0)) + 1)));
      [cbn [c_tasks upd_task with_tasks with_queues]; rewrite Et; reflexivity | apply DS_eq; cbn [c_workers upd_task with_tasks with_queues]; exact Ew | exact I].
Qed.

Lemma lost_fail_running_RS l : forall s reason s', lost_fail_running s reason l = Ok s' -> RS (core_of s) (core_of s').
Proof.
  apply (lost_fail_running_rel (fun a b : st => RS (core_of a) (core_of b)) (fun a => RS_refl _) (fun a b c => RS_trans _ _ _)).
  - intros s id t Ef. eapply (RS_set_same _ _ (with_crash t (t_crash t + 1)) t); [reflexivity | ds | eapply find_in; exact Ef | reflexivity | reflexivity].
  - intros s id k s' _ H. exact (task_failed_RS _ _ _ _ _ H).
Qed.

Lemma map_one_RS c m id w v rqres c' m' : map_one c m id w v rqres = Ok (c', m') -> RS c c'.
Proof.
  intros H. unfold map_one in H.
  apply bind_ok in H. destruct H as (wk & ?X & H). apply bind_ok in H. destruct H as (wk' & ?X & H).
  apply bind_ok in H. destruct H as (t & ?X & H).
  destruct (t_state t) as [n|w1 rv1|old|old|w1 rv1|wsx|]; try discriminate.
  - inversion H; subst. eapply (RS_set_ok _ _ (with_state t (Assigned w v))); [reflexivity | ds | exact I].
  - destruct (find_worker (c_workers (upd_worker c wk')) old) as [wo|] eqn:Hwo; [|discriminate].
    apply bind_ok in H. destruct H as (wo' & Hrp & H).
    destruct (find_redirect _ id); [discriminate|]. inversion H; subst.
    eapply RS_trans; [apply (RS_tasks c (upd_worker c wk')); [reflexivity | ds]|].
    eapply (RS_set_ok _ _ (with_state t (Retracting old))); [reflexivity | ds | exists wo; split; [exact Hwo | exact (proj2 (snk_remove_prefill _ _ _ Hrp))]].
  - destruct (find_redirect _ id) as [[ot vo]|].
    + inv_binds H. inversion H; subst. apply RS_tasks; [reflexivity | ds].
    + inversion H; subst. apply RS_tasks; [reflexivity | ds].
Qed.

Lemma map_sn_RS sol l : forall c m c' m', map_sn c m sol l = Ok (c', m') -> RS c c'.
Proof. apply (map_sn_lift RS RS_refl RS_trans); [|exact map_one_RS]. intros c qs. apply RS_tasks; [reflexivity | ds]. Qed.






Lemma prefill_mark_RS l : forall c w c', prefill_mark c w l = Ok c' -> RS c c'.
Proof.
  induction l as [|id r IH]; cbn [prefill_mark]; intros c w c' H; [inversion H; subst; apply RS_refl|].
  apply bind_ok in H. destruct H as (t & ?X & H). destruct (negb (is_waiting t)); [discriminate|].
  apply bind_ok in H. destruct H as (wk & ?X & H). apply bind_ok in H. destruct H as (wk' & ?X & H).
  eapply RS_trans; [|eapply IH; exact H].
  eapply (RS_set_ok _ _ (with_state t (Prefilled w))); [reflexivity | ds | exact I].
Qed.

Lemma prefill_queues_RS n : forall c m worder qi top c' m', prefill_queues c m worder qi n top = Ok (c', m') -> RS c c'.
Proof. apply (prefill_queues_lift RS RS_refl RS_trans); [|exact prefill_mark_RS]. intros c qs. apply RS_tasks; [reflexivity | ds]. Qed.


