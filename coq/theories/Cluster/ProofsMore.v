(** Further lemmas: legality of terminal transitions (C01, C08), totality of client requests
    (C09), auto-assigned ids (C02, C13), the worker's cancel / retract handling (C06, C08). *)
From HQ Require Import Base.Prelude Cluster.Types Cluster.Core Cluster.Reactor Cluster.Worker Cluster.Server Cluster.Sys Cluster.Monitors Cluster.ProofsJob.
From HQ Require Import Cluster.ModelFacts.
From Coq Require Import ZArith Lia.
Require Import ZifyBool ZifyN ZifyNat.
Local Open Scope N_scope.

Arguments N.add : simpl never.
Arguments N.sub : simpl never.

Definition task_state (s : st) (t : tid) : option jstate :=
  match find_job (h_jobs (hq_of s)) (fst t) with
  | Some j => jt_find (j_tasks j) (snd t)
  | None => None
  end.
Definition terminal (v : jstate) : Prop := v = JF \/ v = JX \/ v = JC \/ v = JA.

(** * C01: an outcome is only ever recorded for a task that has none yet *)

(** A finish is accepted only for a task the job layer shows as Running (a second outcome or a
    finish without start panics the server instead of being reported). *)
Theorem finished_only_from_running s t s' :
  process_task_finished s t = Ok s' -> task_state s t = Some JR.
Proof.
  unfold process_task_finished, task_state, hq_get_job, hq_of. intros H.
  destruct (find_job _ (fst t)) as [j|]; [|discriminate]. cbn [bind] in H.
  destruct (jt_find (j_tasks j) (snd t)) as [[]|]; try discriminate. reflexivity.
Qed.

Theorem failed_only_from_active s t aborted k r :
  process_task_failed s t aborted k = Ok r ->
  exists s1, abort_tasks s (fst t) aborted = Ok s1 /\ (task_state s1 t = Some JW \/ task_state s1 t = Some JR).
Proof.
  unfold process_task_failed. intros H. apply bind_ok in H. destruct H as (s1 & H1 & H).
  exists s1. split; [exact H1|].
  unfold task_state, hq_get_job, hq_of in *.
  destruct (find_job _ (fst t)) as [j|]; [|discriminate]. cbn [bind] in H.
  destruct (jt_find (j_tasks j) (snd t)) as [[]|]; try discriminate; auto.
Qed.

(** Cancel / abort: every task in the list was Waiting or Running in the job as it was before the
    call (never already terminal); in particular the list has no duplicates. *)
Lemma jt_find_set_same l t v : jt_find (jt_set l t v) t = Some v.
Proof.
  induction l as [|[k x] r IH]; cbn [jt_set jt_find]; [rewrite N.eqb_refl; reflexivity|].
  destruct (N.eqb t k) eqn:E; [cbn [jt_find]; rewrite N.eqb_refl; reflexivity|].
  destruct (N.ltb t k); cbn [jt_find]; [rewrite N.eqb_refl; reflexivity|]. rewrite E. exact IH.
Qed.
Lemma jt_find_set_other l t v t' : t' <> t -> jt_find (jt_set l t v) t' = jt_find l t'.
Proof.
  intros Hne. induction l as [|[k x] r IH]; cbn [jt_set jt_find].
  - destruct (N.eqb t' t) eqn:E; [apply N.eqb_eq in E; contradiction | reflexivity].
  - destruct (N.eqb t k) eqn:E1.
    + apply N.eqb_eq in E1; subst. cbn [jt_find].
      destruct (N.eqb t' k) eqn:E; [apply N.eqb_eq in E; contradiction | reflexivity].
    + destruct (N.ltb t k); cbn [jt_find].
      * destruct (N.eqb t' t) eqn:E; [apply N.eqb_eq in E; contradiction | reflexivity].
      * destruct (N.eqb t' k); [reflexivity | exact IH].
Qed.

Theorem mark_only_from_active target site ids : (target = JC \/ target = JA) -> forall j j',
  mark_tasks j ids target site = Ok j' ->
  forall t, In t ids -> jt_find (j_tasks j) (snd t) = Some JW \/ jt_find (j_tasks j) (snd t) = Some JR.
Proof.
  intros Ht. induction ids as [|x r IH]; cbn [mark_tasks]; intros j j' H t Hin; [destruct Hin|].
  destruct (negb (N.eqb (fst x) (j_id j))); [discriminate|].
  destruct (jt_find (j_tasks j) (snd x)) as [v|] eqn:Ef; [|discriminate].
  assert (Hnext : forall jn, j_tasks jn = jt_set (j_tasks j) (snd x) target ->
            mark_tasks jn r target site = Ok j' -> In t r ->
            jt_find (j_tasks j) (snd t) = Some JW \/ jt_find (j_tasks j) (snd t) = Some JR).
  { intros jn Hjn Hm Hr. specialize (IH _ _ Hm _ Hr). rewrite Hjn in IH.
    destruct (N.eq_dec (snd t) (snd x)) as [E|E].
    - rewrite E, jt_find_set_same in IH. destruct Ht; subst target; destruct IH; discriminate.
    - rewrite jt_find_set_other in IH by exact E. exact IH. }
  destruct Hin as [->|Hin].
  - destruct v; try discriminate; auto.
  - destruct v; try discriminate.
    + eapply (Hnext (job_set_task j (snd x) target)); [reflexivity | exact H | exact Hin].
    + apply bind_ok in H. destruct H as (nr & _ & H).
      eapply Hnext; [|exact H | exact Hin]. reflexivity.
Qed.

(** * C09: client requests cannot panic a consistent job layer *)
Theorem close_total s jid : HOK (hq_of s) -> is_panic (handle_close s jid) = false.
Proof.
  intros H. unfold handle_close.
  destruct (find_job (hq_jobs s) jid) as [j|] eqn:Ef; [|reflexivity].
  destruct (j_open j) eqn:Eo; [|reflexivity].
  set (j' := mkJob (j_id j) false (j_tasks j) (j_nrun j) (j_nfin j) (j_nfail j) (j_ncanc j) (j_nabort j) (j_completed j) (j_maxfails j)).
  assert (Hj' : JOK j').
  { pose proof (H _ (find_job_in _ _ _ Ef)) as [Ss R F X C A Cm]. constructor; cbn; auto.
    intros Hcm. destruct (Cm Hcm) as (Ho & _). congruence. }
  (* the closed job is the one [check_termination] looks up *)
  unfold check_termination, hq_get_job, emit, hq_set_job. cbn [fst s_hq with_hq h_jobs].
  rewrite find_job_set. cbn [j_id j']. rewrite (find_job_id _ _ _ Ef), N.eqb_refl. cbn [bind].
  rewrite (has_no_active_ok _ Hj'). cbn [bind].
  destruct (_ && _); [destruct (j_open j')|]; reflexivity.
Qed.

Theorem forget_total s jid : HOK (hq_of s) -> is_panic (handle_forget s jid) = false.
Proof.
  intros H. unfold handle_forget.
  destruct (find_job (hq_jobs s) jid) as [j|] eqn:Ef; [|reflexivity].
  rewrite (has_no_active_ok _ (H _ (find_job_in _ _ _ Ef))). cbn [bind].
  destruct (negb (j_open j) && _); reflexivity.
Qed.

Theorem open_total s mf : is_panic (handle_open s mf) = false.
Proof. reflexivity. Qed.

(** * C02 / C13: auto-assigned ids *)
Lemma range_from_length s n : length (range_from s n) = n.
Proof. revert s; induction n as [|n IH]; intros s; cbn [range_from length]; [reflexivity|]. rewrite IH. reflexivity. Qed.

Lemma range_from_in s n x : In x (range_from s n) <-> s <= x < s + N.of_nat n.
Proof.
  revert s; induction n as [|n IH]; intros s; cbn [range_from In].
  - lia.
  - rewrite IH. lia.
Qed.

Lemma take_n_all {A} (l : list A) : fst (take_n (length l) l) = l.
Proof. induction l as [|h t IH]; cbn [take_n length fst]; [reflexivity|]. destruct (take_n (length t) t) eqn:E. cbn in *. congruence. Qed.

(** The ids given to a submit with [n] entries into an open job are exactly the [n] ids following
    the largest existing id, and every one of them is handed to the scheduler (no phantom task). *)
Theorem auto_ids_exact (mx : N) (n : N) :
  let ids := range_from (mx + 1) (N.to_nat n) in
  N.of_nat (length ids) = n
  /\ (forall x, In x ids <-> mx < x <= mx + n)
  /\ fst (take_n (N.to_nat n) ids) = ids.
Proof.
  cbn zeta. split; [rewrite range_from_length; lia|]. split.
  - intros x. rewrite range_from_in. lia.
  - rewrite <- (range_from_length (mx + 1) (N.to_nat n)) at 1. apply take_n_all.
Qed.

(** * C08 / C06: the worker drops a cancelled or retracted task from its backlog *)
Definition in_backlog (p : wproc) (t : tid) : Prop :=
  exists rq ts x, In (rq, ts) (p_backlog p) /\ In x ts /\ wt_id x = t.

(** After [cancel_task] a task that was not running is no longer in the backlog, hence
    [prefill_loop] can never start it (the defect F1, fixed). *)
Theorem cancel_drops_backlog p t :
  run_find (p_running p) t = None -> ~ in_backlog (cancel_task p t) t.
Proof.
  intros Hr (rq & ts & x & Hin & Hx & Hid). unfold cancel_task in Hin. rewrite Hr in Hin. cbn in Hin.
  apply in_map_iff in Hin. destruct Hin as ([rq0 ts0] & Heq & _). inversion Heq; subst. cbn in Hx.
  apply filter_In in Hx. destruct Hx as [_ Hf]. rewrite tid_eqb_refl in Hf. discriminate.
Qed.

Lemma tid_mem_in x l : tid_mem x l = true <-> exists y, In y l /\ tid_eqb x y = true.
Proof.
  induction l as [|h t IH]; cbn [tid_mem].
  - split; [discriminate | intros (y & [] & _)].
  - rewrite orb_true_iff, IH. split.
    + intros [H|(y & Hy & He)]; [exists h; split; [left; reflexivity | exact H] | exists y; split; [right; exact Hy | exact He]].
    + intros (y & [->|Hy] & He); [left; exact He | right; exists y; split; assumption].
Qed.

Lemma bl_get_set b rq v rq' : bl_get (bl_set b rq v) rq' = if N.eqb rq' rq then v else bl_get b rq'.
Proof.
  induction b as [|[k v0] r IH]; cbn [bl_set bl_get].
  - destruct (N.eqb rq' rq); reflexivity.
  - destruct (N.eqb rq k) eqn:E1.
    + apply N.eqb_eq in E1; subst. cbn [bl_get]. destruct (N.eqb rq' k); reflexivity.
    + destruct (N.ltb rq k) eqn:E2; cbn [bl_get].
      * destruct (N.eqb rq' rq) eqn:E3; [reflexivity|]. reflexivity.
      * destruct (N.eqb rq' k) eqn:E3.
        -- apply N.eqb_eq in E3; subst. rewrite N.eqb_sym, E1. reflexivity.
        -- exact IH.
Qed.

(** [retract_tasks]: for every request class visited, no task with a retracted id stays in that
    class' backlog vector. *)
Theorem retract_removes order : forall b ids out b' out' rq x,
  retract_from b order ids out = (b', out') -> In rq order -> In x (bl_get b' rq) -> tid_mem (wt_id x) ids = false.
Proof.
  induction order as [|r0 rest IH]; cbn [retract_from]; intros b ids out b' out' rq x H Hin Hx; [destruct Hin|].
  destruct (N.eq_dec rq r0) as [->|Hne].
  - (* the class just processed: later iterations only filter further *)
    destruct (in_dec N.eq_dec r0 rest) as [Hl|Hnl]; [eapply IH; eassumption|].
    assert (Hkeep : forall order b out b' out', retract_from b order ids out = (b', out') -> ~ In r0 order -> bl_get b' r0 = bl_get b r0).
    { clear. induction order as [|r1 rest IH]; cbn [retract_from]; intros b out b' out' H Hn; [inversion H; reflexivity|].
      rewrite (IH _ _ _ _ H) by (intros Hc; apply Hn; right; exact Hc).
      destruct (bl_has b r1); [|reflexivity]. rewrite bl_get_set.
      destruct (N.eqb r0 r1) eqn:E; [apply N.eqb_eq in E; subst; exfalso; apply Hn; left; reflexivity | reflexivity]. }
    rewrite (Hkeep _ _ _ _ _ H Hnl) in Hx.
    destruct (bl_has b r0) eqn:Eh.
    + rewrite bl_get_set, N.eqb_refl in Hx. apply filter_In in Hx. destruct Hx as [_ Hf].
      apply negb_true_iff in Hf. exact Hf.
    + (* no such key: bl_get is empty *)
      assert (bl_get b r0 = []) as Hempty.
      { clear -Eh. induction b as [|[k v] r IH]; cbn [bl_has bl_get] in *; [reflexivity|].
        destruct (N.eqb r0 k); [discriminate | auto]. }
      rewrite Hempty in Hx. destruct Hx.
  - destruct Hin as [->|Hin]; [contradiction|]. eapply IH; eassumption.
Qed.
