(** C09 for client requests: tools, the two state facts that the bundle [INV] lacks
    ([MNE], [RWA]), totality of the job-layer functions ([mark_tasks], [set_cancel_state],
    [check_termination], [attach_ids], [live_jobs]) and of message sending. *)
From HQ Require Import Base.Prelude Cluster.Types Cluster.Core Cluster.Reactor Cluster.Server Cluster.Sys Cluster.ProofsJob Cluster.ProofsMore Cluster.BijBase Cluster.InvProcsDef.
From HQ Require Import Cluster.ModelFacts.
From Coq Require Import ZArith Lia Sorting.Sorted.
Local Open Scope N_scope.

Arguments N.add : simpl never.
Arguments N.sub : simpl never.

Lemma np_bind {A B} (r : res A) (f : A -> res B) :
  is_panic r = false -> (forall a, r = Ok a -> is_panic (f a) = false) -> is_panic (bind r f) = false.
Proof. destruct r as [a| |n]; cbn; intros H1 H2; [apply H2; reflexivity | reflexivity | discriminate]. Qed.

Lemma ok_np {A} (r : res A) a : r = Ok a -> is_panic r = false.
Proof. intros ->. reflexivity. Qed.

Lemma ex_np {A} (r : res A) : (exists a, r = Ok a) -> is_panic r = false.
Proof. intros (a & ->). reflexivity. Qed.

(** * Two facts about reachable states that are not part of [INV]

    [MNE]: a multi-node task runs on at least one worker ([cancel_release] indexes [ws[0]]: site 163).
    [RWA]: the worker a task is being retracted from is still connected ([cancel_release] sends it a
    cancel message: site 160).  Both are true in every reachable state ([map_mn_sets] with an empty
    worker set panics in [send_mn] of the same step, and [on_remove_worker] converts every task that
    is being retracted from the lost worker), but they are not part of the proved bundle. *)
Definition MNE (c : core) : Prop := forall t, In t (c_tasks c) -> t_state t <> RunningMN [].
Definition RWA (c : core) : Prop :=
  forall t w, In t (c_tasks c) -> t_state t = Retracting w -> exists wk, find_worker (c_workers c) w = Some wk.

Lemma jst_eqb_refl v : jst_eqb v v = true.
Proof. destruct v; reflexivity. Qed.

Lemma cnt_pos l k v : jt_find l k = Some v -> 1 <= cnt l v.
Proof.
  induction l as [|[k0 x] r IH]; cbn [jt_find cnt]; [discriminate|].
  destruct (N.eqb k k0); intros H.
  - inversion H; subst. rewrite jst_eqb_refl. lia.
  - specialize (IH H). destruct (jst_eqb x v); lia.
Qed.

Lemma check_termination_tot s jid j :
  HOK (hq_of s) -> find_job (hq_jobs s) jid = Some j -> exists s', check_termination s jid = Ok s'.
Proof.
  intros H Ef. unfold check_termination, hq_get_job. unfold hq_jobs in Ef. rewrite Ef. cbn [bind].
  rewrite (has_no_active_ok _ (H _ (find_job_in _ _ _ Ef))). cbn [bind].
  destruct (_ && _); [destruct (j_open j)|]; eexists; reflexivity.
Qed.

Lemma mark_tasks_tot target site ids : is_abort_or_cancel target -> forall j k,
  JOKx j target k -> NoDup ids ->
  (forall t, In t ids -> fst t = j_id j /\ jactive (jt_find (j_tasks j) (snd t))) ->
  exists j', mark_tasks j ids target site = Ok j'.
Proof.
  intros Ht. induction ids as [|t r IH]; intros j k Hj Hnd Hin; [eexists; reflexivity|].
  inversion Hnd as [|? ? Hni Hnd']; subst.
  destruct (Hin t (or_introl eq_refl)) as [Hf Ha].
  assert (Hone : exists j1, mark_tasks j [t] target site = Ok j1 /\ j_id j1 = j_id j /\
                   j_tasks j1 = jt_set (j_tasks j) (snd t) target /\
                   mark_tasks j (t :: r) target site = mark_tasks j1 r target site).
  { cbn [mark_tasks]. rewrite Hf, N.eqb_refl. cbn [negb]. destruct Ha as [Ha|Ha]; rewrite Ha.
    - eexists. split; [reflexivity|]. split; [reflexivity|]. split; reflexivity.
    - unfold csub. pose proof (cnt_pos _ _ _ Ha) as Hp. rewrite <- (jx_run _ _ _ Hj) in Hp.
      destruct (N.ltb (j_nrun j) 1) eqn:El; [apply N.ltb_lt in El; lia|]. cbn [bind].
      eexists. split; [reflexivity|]. split; [reflexivity|]. split; reflexivity. }
  destruct Hone as (j1 & H1 & Hid1 & Ht1 & Hrest). rewrite Hrest.
  destruct (mark_tasks_ok target site [t] Ht _ _ _ Hj H1) as (Hj1 & _).
  apply (IH j1 (k + N.of_nat (length [t])) Hj1 Hnd').
  intros t' Ht'. destruct (Hin t' (or_intror Ht')) as [Hf' Ha']. split; [congruence|].
  rewrite Ht1, jt_find_set.
  destruct (N.eqb (snd t') (snd t)) eqn:E; [|exact Ha'].
  apply N.eqb_eq in E. exfalso. apply Hni. destruct t as [a b], t' as [a' b']. cbn in *. subst. exact Ht'.
Qed.

Lemma find_job_hq_set s j id : find_job (hq_jobs (hq_set_job s j)) id = if N.eqb id (j_id j) then Some j else find_job (hq_jobs s) id.
Proof. unfold hq_jobs, hq_set_job. cbn. apply find_job_set. Qed.

Lemma set_cancel_state_tot s jid ids j :
  HOK (hq_of s) -> find_job (hq_jobs s) jid = Some j -> NoDup ids ->
  (forall t, In t ids -> fst t = jid /\ jactive (jt_find (j_tasks j) (snd t))) ->
  exists s', set_cancel_state s jid ids = Ok s'.
Proof.
  intros H Ef Hnd Hin. unfold set_cancel_state. destruct ids as [|i0 ir]; [eexists; reflexivity|].
  pose proof (find_job_id _ _ _ Ef) as Hid.
  unfold hq_get_job. unfold hq_jobs in Ef. rewrite Ef. cbn [bind].
  pose proof (H _ (find_job_in _ _ _ Ef)) as Hj.
  destruct (mark_tasks_tot JC 205 (i0 :: ir) (or_introl eq_refl) j 0 (JOK_JOKx _ JC Hj) Hnd) as (j1 & H1).
  { intros t Ht. rewrite Hid. apply Hin. exact Ht. }
  rewrite H1. cbn [bind].
  destruct (mark_tasks_ok JC 205 (i0 :: ir) (or_introl eq_refl) _ _ 0 (JOK_JOKx _ JC Hj) H1) as ([Ss R F X C A] & O1 & O2 & O3 & O4 & Hact).
  match goal with |- exists s', check_termination ?st jid = _ => set (s2 := st) end.
  match goal with s2 := emit (emit (hq_set_job s ?jj) _) _ |- _ => set (j2 := jj) in * end.
  assert (Hj2 : JOK j2).
  { subst j2. cbn [jst_eqb] in *. constructor; cbn; auto; try lia.
    intros Hcm. rewrite O2 in Hcm. destruct (jok_completed _ Hj Hcm) as (_ & Hw & Hr).
    assert (i0 :: ir <> []) as Hne by discriminate. specialize (Hact Hne). lia. }
  apply (check_termination_tot s2 jid j2).
  - subst s2. rewrite !emit_hq. apply hq_set_job_ok; assumption.
  - subst s2. change (find_job (hq_jobs (hq_set_job s j2)) jid = Some j2). rewrite find_job_hq_set.
    replace (j_id j2) with jid by (subst j2; cbn; congruence). rewrite N.eqb_refl. reflexivity.
Qed.

Lemma attach_ids_tot ids : forall j, NoDup ids -> (forall i, In i ids -> jt_find (j_tasks j) i = None) ->
  exists j', attach_ids j ids = Ok j'.
Proof.
  induction ids as [|i r IH]; intros j Hnd Hin; [eexists; reflexivity|].
  inversion Hnd as [|? ? Hni Hnd']; subst. cbn [attach_ids]. rewrite (Hin i (or_introl eq_refl)).
  apply IH; [exact Hnd'|]. intros i' Hi'. cbn. rewrite jt_find_set.
  destruct (N.eqb i' i) eqn:E; [apply N.eqb_eq in E; subst; contradiction | apply Hin; right; exact Hi'].
Qed.

Lemma live_jobs_tot js : (forall j, In j js -> JOK j) -> exists l, live_jobs js = Ok l.
Proof.
  induction js as [|j r IH]; intros H; [eexists; reflexivity|]. cbn [live_jobs].
  destruct IH as (l & Hl); [intros x Hx; apply H; right; exact Hx|]. rewrite Hl.
  destruct (j_open j); cbn [bind]; [eexists; reflexivity|].
  rewrite (has_no_active_ok _ (H j (or_introl eq_refl))). cbn [bind]. eexists; reflexivity.
Qed.

Definition has_proc (s : st) (w : wid) : Prop := find_proc (s_procs (fst s)) w <> None.

Lemma send_worker_tot s w m : has_proc s w ->
  exists s', send_worker s w m = Ok s' /\ core_of s' = core_of s /\ forall w', has_proc s' w' <-> has_proc s w'.
Proof.
  unfold has_proc, send_worker. intros H. destruct (find_proc (s_procs (fst s)) w) as [p|] eqn:E; [|congruence].
  eexists. split; [reflexivity|]. split; [reflexivity|]. intros w'. cbn. rewrite find_set_proc.
  cbn [push_down p_id]. rewrite (proj2 (find_proc_some _ _ _ E)).
  destruct (N.eqb w' w) eqn:E'; [|reflexivity]. apply N.eqb_eq in E'. subst w'. rewrite E. split; discriminate.
Qed.

Lemma send_all_tot msgs : forall s, (forall w m, In (w, m) msgs -> has_proc s w) -> exists s', send_all s msgs = Ok s'.
Proof.
  induction msgs as [|[w m] r IH]; intros s H; [eexists; reflexivity|]. cbn [send_all].
  destruct (send_worker_tot s w m (H w m (or_introl eq_refl))) as (s1 & H1 & _ & Hp). rewrite H1. cbn [bind].
  apply IH. intros w' m' Hin. apply Hp. eapply H. right. exact Hin.
Qed.

Lemma same_ids_find ps : forall ws w, map p_id ps = map w_id ws -> (find_proc ps w <> None <-> find_worker ws w <> None).
Proof.
  induction ps as [|p r IH]; intros [|k ws] w E; try discriminate; [cbn; tauto|].
  cbn [map] in E. inversion E as [[E1 E2]]. cbn [find_proc find_worker]. rewrite E1.
  destruct (N.eqb w (w_id k)); [split; discriminate | apply IH; exact E2].
Qed.

(** The processes cover the workers of the core (one direction of [PW], what sending needs). *)
Definition PWc (s : st) : Prop := forall w, find_worker (c_workers (core_of s)) w <> None -> has_proc s w.

Lemma PW_PWc s outs : PW s -> PWc (s, outs).
Proof. intros H w Hw. unfold has_proc. cbn. apply (same_ids_find _ _ w H). exact Hw. Qed.

Lemma open_np s mf : is_panic (step s (OpOpen mf)) = false.
Proof. reflexivity. Qed.
Lemma close_np s j : HOK (s_hq s) -> is_panic (step s (OpClose j)) = false.
Proof. intros H. cbn [step]. apply close_total. exact H. Qed.
Lemma forget_np s j : HOK (s_hq s) -> is_panic (step s (OpForget j)) = false.
Proof. intros H. cbn [step]. apply forget_total. exact H. Qed.
Lemma prune_np s : HOK (s_hq s) -> is_panic (step s OpPrune) = false.
Proof. intros H. cbn [step]. destruct (live_jobs_tot (h_jobs (s_hq s)) H) as (l & Hl). rewrite Hl. reflexivity. Qed.
