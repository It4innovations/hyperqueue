(** C09 for the scheduling step: the single-node mapping ([map_one], the round-robin
    loop, [map_sn]) never panics when the solver's counts are covered by the queues and name
    single-node workers. *)
From HQ Require Import Base.Prelude Cluster.Types Cluster.Core Cluster.Server Cluster.BijBase Cluster.InvWBase Cluster.InvWView Cluster.InvWCore Cluster.InvWServer Cluster.InvQTake Cluster.InvQInv Cluster.InvQOps Cluster.InvQSched Cluster.NoPanicS1 Cluster.InvQBase.
From HQ Require Import Cluster.ModelFacts.
From Coq Require Import ZArith Lia Sorting.Sorted.
Local Open Scope N_scope.

Arguments N.add : simpl never.
Arguments N.sub : simpl never.

Lemma MOK_add_assigned c m w id v : MOK c m -> find_worker (c_workers c) w <> None -> find_task (c_tasks c) id <> None ->
  MOK c (wu_set m (mkWU w (wu_assigned (wu_get m w) ++ [(id, v)]) (wu_prefills (wu_get m w)) (wu_retracts (wu_get m w)))).
Proof.
  intros H Hw Ht. destruct (wu_get_spec c m w H) as (_ & G2 & G3). apply MOK_set; cbn [wu_w wu_assigned wu_prefills]; auto.
  intros a Ha. apply in_app_or in Ha. destruct Ha as [Ha|[<-|[]]]; [apply G2; exact Ha | exact Ht].
Qed.
Lemma MOK_add_retract c m w id : MOK c m -> find_worker (c_workers c) w <> None ->
  MOK c (wu_set m (mkWU w (wu_assigned (wu_get m w)) (wu_prefills (wu_get m w)) (wu_retracts (wu_get m w) ++ [id]))).
Proof.
  intros H Hw. destruct (wu_get_spec c m w H) as (_ & G2 & G3). apply MOK_set; cbn [wu_w wu_assigned wu_prefills]; auto.
Qed.
Lemma MOK_add_prefills c m w ids : MOK c m -> find_worker (c_workers c) w <> None ->
  (forall id, In id ids -> find_task (c_tasks c) id <> None) ->
  MOK c (wu_set m (mkWU w (wu_assigned (wu_get m w)) (wu_prefills (wu_get m w) ++ ids) (wu_retracts (wu_get m w)))).
Proof.
  intros H Hw Ht. destruct (wu_get_spec c m w H) as (_ & G2 & G3). apply MOK_set; cbn [wu_w wu_assigned wu_prefills]; auto.
  intros a Ha. apply in_app_or in Ha. destruct Ha as [Ha|Ha]; [apply G3; exact Ha | apply Ht; exact Ha].
Qed.

Lemma map_one_ok c m id D w v rqres i :
  WI c -> QI (exL Nowhere (id :: D) none) [] c -> ~ In id D -> PT c i [id] -> snw c w -> MOK c m ->
  exists c' m', map_one c m id w v rqres = Ok (c', m') /\ WI c' /\ QI (exL Nowhere D none) [] c' /\
    SF (eq id) (eq w) (fun _ => False) c c' /\ SNP c c' /\ MOK c' m'.
Proof.
  intros HW HQ Hnd HP (wk & a & p & f & Hw & Ea) HM.
  destruct (HP id (or_introl eq_refl)) as (t & Ht & Htk & _).
  destruct (find_task_some _ _ _ Ht) as [_ Hid].
  destruct (find_worker_some _ _ _ Hw) as [_ Hwi].
  assert (Hna : tid_mem id a = false).
  { destruct (tid_mem id a) eqn:E; [|reflexivity]. exfalso. unfold takeable in Htk. rewrite Hid in Htk.
    destruct (WI_member_A c w wk a p f id t HW Hw Ea E Ht) as [X|[X (v0 & Y)]]; destruct (t_state t); cbn in X; try discriminate; try contradiction.
    congruence. }
  set (wk' := with_assign wk (Sn (tid_insert id a) p (res_sub f rqres))).
  assert (Hins : insert_sn_task wk id rqres = Ok wk') by (unfold insert_sn_task; rewrite Ea, Hna; reflexivity).
  assert (Hwi' : w_id wk' = w) by exact Hwi.
  assert (F0 : SF (eq id) (eq w) (fun _ => False) c (upd_worker c wk')) by (eapply SF_upd_worker; [exact Hw | exact Hwi' | left; reflexivity]).
  assert (S0 : SNP c (upd_worker c wk')) by (eapply SNP_upd_worker; [exact Hw | exact Hwi' | reflexivity]).
  assert (Hex : exists c' m', map_one c m id w v rqres = Ok (c', m') /\
            SF (eq id) (eq w) (fun _ => False) (upd_worker c wk') c' /\ SNP (upd_worker c wk') c' /\ MOK c' m').
  { unfold map_one. unfold get_worker at 1. rewrite Hw. cbn [bind]. rewrite Hins. cbn [bind].
    set (c0 := upd_worker c wk') in *.
    assert (Ht0 : find_task (c_tasks c0) id = Some t) by exact Ht.
    unfold get_task at 1. rewrite Ht0. cbn [bind].
    assert (Hw0 : find_worker (c_workers c0) w <> None).
    { apply (sf_wsome _ _ _ _ _ F0). congruence. }
    assert (Ht0' : find_task (c_tasks c0) id <> None) by congruence.
    destruct (t_state t) as [n|w1 rv1|old|old|w1 rv1|wsx|] eqn:Est; try (exfalso; unfold takeable in Htk; rewrite Est in Htk; exact Htk).
    - (* Waiting *)
      eexists _, _. split; [reflexivity|].
      assert (F1 : SF (eq id) (eq w) (fun _ => False) c0 (upd_task c0 (with_state t (Assigned w v)))) by (eapply SF_upd_task; [exact Ht0 | reflexivity]).
      split; [exact F1|]. split; [apply SNP_same; reflexivity|].
      apply MOK_add_assigned.
      + eapply MOK_SF; [exact F1|]. eapply MOK_SF; [exact F0 | exact HM].
      + apply (sf_wsome _ _ _ _ _ F1). exact Hw0.
      + eapply SF_task_some; [exact F1 | exact Ht0'].
    - (* Prefilled on [old] *)
      assert (Hold : exists wo0 a0 p0 f0, find_worker (c_workers c0) old = Some wo0 /\ w_assign wo0 = Sn a0 p0 f0 /\ tid_mem id p0 = true /\ w_id wo0 = old).
      { destruct HW as (_ & _ & Hv & _). pose proof (wi_P _ _ _ Hv old id) as X.
        unfold inP, wantP, hv, x0 in X. rewrite (TV_find _ _ _ Ht) in X. cbn [plo] in X. rewrite Est in X. cbn [pl] in X. rewrite N.eqb_refl in X.
        destruct (find_worker (c_workers c) old) as [wo|] eqn:Hwo; [|discriminate].
        destruct (w_assign wo) as [a2 p2 f2|] eqn:Ea2; [|discriminate].
        destruct (find_worker_some _ _ _ Hwo) as [_ Hwoi].
        subst c0. cbn [c_workers upd_worker with_workers]. rewrite find_set_worker, Hwi'.
        destruct (N.eqb old w) eqn:Eow.
        - apply N.eqb_eq in Eow. rewrite Eow in Hwo. rewrite Hw in Hwo. inversion Hwo; subst wo. rewrite Ea in Ea2. inversion Ea2; subst a2 p2 f2.
          exists wk', (tid_insert id a), p, (res_sub f rqres). rewrite Eow. auto.
        - exists wo, a2, p2, f2. auto. }
      destruct Hold as (wo0 & a0 & p0 & f0 & Hwo0 & Ea0 & Hm0 & Hwoi0).
      rewrite Hwo0. unfold remove_prefill_task. rewrite Ea0, Hm0. cbn [bind].
      set (wo' := with_assign wo0 (Sn a0 (tid_remove id p0) f0)).
      set (c1 := upd_worker c0 wo').
      assert (Er1 : find_redirect (c_redirects c1) id = None).
      { change (find_redirect (c_redirects c) id = None). eapply QV_no_redirect; [exact HQ | exact Ht|]. intros x. rewrite Est. discriminate. }
      rewrite Er1. eexists _, _. split; [reflexivity|].
      assert (Hnf : worker_is_free wo0 = false).
      { unfold worker_is_free. rewrite Ea0. destruct a0; [|reflexivity]. destruct p0; [discriminate Hm0 | reflexivity]. }
      assert (F1 : SF (eq id) (eq w) (fun _ => False) c0 c1) by (eapply SF_upd_worker; [exact Hwo0 | exact Hwoi0 | right; exact Hnf]).
      set (c2 := with_redirects c1 (set_redirect (c_redirects c1) id (w, v))).
      assert (F2 : SF (eq id) (eq w) (fun _ => False) c1 c2) by (apply SF_set_redirect; reflexivity).
      assert (F3 : SF (eq id) (eq w) (fun _ => False) c2 (upd_task c2 (with_state t (Retracting old)))) by (eapply SF_upd_task; [exact Ht0 | reflexivity]).
      pose proof (SF_trans _ _ _ _ _ _ F1 (SF_trans _ _ _ _ _ _ F2 F3)) as F13.
      split; [exact F13|]. split.
      + eapply SNP_trans; [eapply (SNP_upd_worker c0 old wo0 wo'); [exact Hwo0 | exact Hwoi0 | reflexivity] | apply SNP_same; reflexivity].
      + apply MOK_add_retract.
        * eapply MOK_SF; [exact F13|]. eapply MOK_SF; [exact F0 | exact HM].
        * apply (sf_wsome _ _ _ _ _ F13). congruence.
    - (* Retracting without a redirect *)
      assert (Er0 : find_redirect (c_redirects c0) id = None).
      { unfold takeable in Htk. rewrite Est, Hid in Htk. exact Htk. }
      rewrite Er0. eexists _, _. split; [reflexivity|].
      assert (F1 : SF (eq id) (eq w) (fun _ => False) c0 (with_redirects c0 (set_redirect (c_redirects c0) id (w, v)))) by (apply SF_set_redirect; reflexivity).
      split; [exact F1|]. split; [apply SNP_same; reflexivity|].
      eapply MOK_SF; [exact F1|]. eapply MOK_SF; [exact F0 | exact HM]. }
  destruct Hex as (c' & m' & E & F1 & S1 & M1). exists c', m'. split; [exact E|].
  split; [exact (map_one_WI _ _ _ _ _ _ _ _ HW E)|]. split; [exact (map_one_QI D _ _ _ _ _ _ _ _ Hnd HQ E)|].
  split; [exact (SF_trans _ _ _ _ _ _ F0 F1)|]. split; [exact (SNP_trans _ _ _ S0 S1) | exact M1].
Qed.

Definition Wc (counts : list (wid * N)) : wid -> Prop := fun y => exists n, In (y, n) counts /\ 0 < n.

Lemma rr_pass_ok i v rqres counts : forall c m tasks,
  WI c -> QI (exL Nowhere tasks none) [] c -> NoDup tasks -> PT c i tasks ->
  (forall y, Wc counts y -> snw c y) -> MOK c m ->
  exists c' m' counts' rest, rr_pass c m counts tasks v rqres = Ok (c', m', counts', rest) /\
    WI c' /\ QI (exL Nowhere rest none) [] c' /\ NoDup rest /\ PT c' i rest /\
    (forall y, Wc counts' y -> Wc counts y) /\ MOK c' m' /\
    SF (fun y => In y tasks) (Wc counts) (fun _ => False) c c' /\ SNP c c' /\
    nlen rest + sum_counts counts = nlen tasks + sum_counts counts' /\
    (length rest <= length tasks)%nat /\ (tasks <> [] -> 0 < sum_counts counts -> (length rest < length tasks)%nat) /\
    (forall y, In y rest -> In y tasks).
Proof.
  induction counts as [|[w n] r IH]; intros c m tasks HW HQ Hnd HP Hsn HM.
  - exists c, m, [], tasks. split; [destruct tasks; reflexivity|].
    split; [exact HW|]. split; [exact HQ|]. split; [exact Hnd|]. split; [exact HP|]. split; [auto|]. split; [exact HM|].
    split; [apply SF_refl|]. split; [apply SNP_refl|]. split; [reflexivity|]. split; [lia|]. split; [cbn [sum_counts]; intros _ X; lia | auto].
  - destruct tasks as [|id tl].
    + exists c, m, ((w, n) :: r), []. split; [reflexivity|].
      split; [exact HW|]. split; [exact HQ|]. split; [exact Hnd|]. split; [exact HP|]. split; [auto|]. split; [exact HM|].
      split; [apply SF_refl|]. split; [apply SNP_refl|]. split; [reflexivity|]. split; [lia|]. split; [intros X; congruence | auto].
    + cbn [rr_pass]. inversion Hnd as [|? ? Hni Hnt]; subst. destruct (N.ltb 0 n) eqn:En.
      * apply N.ltb_lt in En.
        assert (Hww : Wc ((w, n) :: r) w) by (exists n; split; [left; reflexivity | exact En]).
        destruct (map_one_ok c m id tl w v rqres i HW HQ Hni) as (c1 & m1 & E1 & W1 & Q1 & F1 & S1 & M1);
          [intros y [<-|[]]; apply HP; left; reflexivity | apply Hsn; exact Hww | exact HM |].
        rewrite E1. cbn [bind].
        destruct (IH c1 m1 tl W1 Q1 Hnt) as (c2 & m2 & r' & tl' & E2 & W2 & Q2 & N2 & P2 & C2 & M2 & F2 & S2 & A2 & L2 & L2' & I2);
          [| | exact M1 |].
        { eapply PT_SF; [exact F1 | | eapply PT_incl; [|exact HP]; intros y Hy; right; exact Hy]. intros y Hy <-. contradiction. }
        { intros y (n0 & Hin & Hn0). apply S1. apply Hsn. exists n0. split; [right; exact Hin | exact Hn0]. }
        rewrite E2. cbn [bind]. exists c2, m2, ((w, n - 1) :: r'), tl'. split; [reflexivity|].
        split; [exact W2|]. split; [exact Q2|]. split; [exact N2|]. split; [exact P2|]. split; [|split; [exact M2|]].
        { intros y (n0 & [Hin|Hin] & Hn0); [inversion Hin; subst; exact Hww|].
          destruct (C2 y (ex_intro _ n0 (conj Hin Hn0))) as (n1 & Hin1 & Hn1). exists n1. split; [right; exact Hin1 | exact Hn1]. }
        split.
        { eapply SF_trans.
          - eapply SF_weaken; [| | |exact F1]; [intros y <-; left; reflexivity | intros y <-; exact Hww | auto].
          - eapply SF_weaken; [| | |exact F2]; [intros y Hy; right; exact Hy | | auto].
            intros y (n0 & Hin & Hn0). exists n0. split; [right; exact Hin | exact Hn0]. }
        split; [exact (SNP_trans _ _ _ S1 S2)|]. cbn [sum_counts]. rewrite nlen_cons. cbn [length].
        split; [lia|]. split; [lia|]. split; [intros _ _; lia | intros y Hy; right; apply I2; exact Hy].
      * apply N.ltb_ge in En. assert (n = 0) by lia. subst n.
        destruct (IH c m (id :: tl) HW HQ Hnd HP) as (c2 & m2 & r' & tl' & E2 & W2 & Q2 & N2 & P2 & C2 & M2 & F2 & S2 & A2 & L2 & L2' & I2);
          [| exact HM |].
        { intros y (n0 & Hin & Hn0). apply Hsn. exists n0. split; [right; exact Hin | exact Hn0]. }
        rewrite E2. cbn [bind]. exists c2, m2, ((w, 0) :: r'), tl'. split; [reflexivity|].
        split; [exact W2|]. split; [exact Q2|]. split; [exact N2|]. split; [exact P2|]. split; [|split; [exact M2|]].
        { intros y (n0 & [Hin|Hin] & Hn0); [inversion Hin; subst; lia|].
          destruct (C2 y (ex_intro _ n0 (conj Hin Hn0))) as (n1 & Hin1 & Hn1). exists n1. split; [right; exact Hin1 | exact Hn1]. }
        split.
        { eapply SF_weaken; [| | |exact F2]; [auto | | auto]. intros y (n0 & Hin & Hn0). exists n0. split; [right; exact Hin | exact Hn0]. }
        split; [exact S2|]. cbn [sum_counts] in *. split; [lia|]. split; [exact L2|]. split; [intros X Y; apply L2'; [exact X | lia] | exact I2].
Qed.

Lemma rr_loop_ok i v rqres fuel : forall c m counts tasks,
  WI c -> QI (exL Nowhere tasks none) [] c -> NoDup tasks -> PT c i tasks ->
  (forall y, Wc counts y -> snw c y) -> MOK c m ->
  nlen tasks <= sum_counts counts -> (length tasks < fuel)%nat ->
  exists c' m', rr_loop fuel c m counts tasks v rqres = Ok (c', m') /\ WI c' /\ QI none [] c' /\ MOK c' m' /\
    SF (fun y => In y tasks) (Wc counts) (fun _ => False) c c' /\ SNP c c'.
Proof.
  induction fuel as [|k IH]; intros c m counts tasks HW HQ Hnd HP Hsn HM Hle Hf; [lia|].
  destruct tasks as [|id tl].
  - exists c, m. split; [reflexivity|]. split; [exact HW|]. split; [exact HQ|]. split; [exact HM|]. split; [apply SF_refl | apply SNP_refl].
  - cbn [rr_loop].
    destruct (rr_pass_ok i v rqres counts c m (id :: tl) HW HQ Hnd HP Hsn HM)
      as (c1 & m1 & counts1 & rest & E1 & W1 & Q1 & N1 & P1 & C1 & M1 & F1 & S1 & A1 & L1 & L1' & I1).
    rewrite E1. cbn [bind].
    assert (Hpos : 0 < sum_counts counts) by (rewrite nlen_cons in Hle; lia).
    assert (Hlt : (length rest < length (id :: tl))%nat) by (apply L1'; [discriminate | exact Hpos]).
    destruct (IH c1 m1 counts1 rest W1 Q1 N1 P1) as (c2 & m2 & E2 & W2 & Q2 & M2 & F2 & S2); [| exact M1 | lia | lia |].
    { intros y Hy. apply S1. apply Hsn. apply C1. exact Hy. }
    exists c2, m2. split; [exact E2|]. split; [exact W2|]. split; [exact Q2|]. split; [exact M2|]. split; [|exact (SNP_trans _ _ _ S1 S2)].
    eapply SF_trans; [exact F1|]. eapply SF_weaken; [| | |exact F2]; [exact I1 | exact C1 | auto].
Qed.

Definition cidx {A} (x : N * N * A) : nat := N.to_nat (fst (fst x)).

(** What the solver owes for one class [(rq, variant, counts)]: a valid request index, not more
    tasks than the class's queue holds, every worker with a positive count exists in single-node mode. *)
Definition sn_class_ok (c : core) (x : N * N * list (wid * N)) : Prop :=
  (cidx x < length (c_rqs c))%nat /\
  (forall q, nth_error (c_queues c) (cidx x) = Some q -> sum_counts (snd x) <= qsize q) /\
  (forall y, Wc (snd x) y -> snw c y).
Definition SnOK (c : core) (l : list (N * N * list (wid * N))) : Prop :=
  NoDup (map cidx l) /\ Forall (sn_class_ok c) l.

Lemma taken_PT c i q q' a : QI none [] c -> nth_error (c_queues c) i = Some q -> TakeQ q q' a -> PT c i a.
Proof.
  intros V Hq T id Hin. pose proof (TakeQ_taken_member _ _ _ _ T Hin) as Hm.
  destruct (qv_live _ _ _ _ _ _ V i q id Hq Hm) as (t & Hf & Hi). exists t. split; [exact Hf|]. split; [|exact Hi].
  rewrite <- Hi in Hq. pose proof (qv_task _ _ _ _ _ _ V _ _ _ Hf Hq) as Hp.
  pose proof (placed_member _ _ _ _ Hp Hm) as Hne. unfold exp_place, none, nat_place in Hne. unfold takeable.
  rewrite (find_task_id _ _ _ Hf).
  destruct (t_state t); auto; try congruence. destruct (find_redirect (c_redirects c) id); [congruence | reflexivity].
Qed.

Theorem map_sn_ok sol l : forall c m,
  WI c -> QI none [] c -> MOK c m -> SnOK c l ->
  np (map_sn c m sol l) /\
  forall c1 m1, map_sn c m sol l = Ok (c1, m1) ->
    WI c1 /\ QI none [] c1 /\ MOK c1 m1 /\
    SF (fun y => exists t, find_task (c_tasks c) y = Some t /\ In (N.to_nat (t_rq t)) (map cidx l))
       (fun y => exists x, In x l /\ Wc (snd x) y) (fun i => In i (map cidx l)) c c1.
Proof.
  induction l as [|[[rq v] counts] r IH]; intros c m HW V HM [Hnd HF]; cbn [map_sn].
  - split; [reflexivity|]. intros c1 m1 H. inversion H; subst. split; [exact HW|]. split; [exact V|]. split; [exact HM | apply SF_refl].
  - inversion Hnd as [|? ? Hni Hnr]; subst. inversion HF as [|? ? (Hlt & Hsz & Hsn) HFr]; subst.
    unfold cidx in Hlt, Hsz, Hni. cbn [fst snd] in Hlt, Hsz, Hsn, Hni. set (i := N.to_nat rq) in *.
    destruct (nth_error_ex (c_rqs c) i Hlt) as (rqd & Hrq). unfold get_rq. fold i. rewrite Hrq. cbn [bind].
    assert (Hlq : (i < length (c_queues c))%nat) by (rewrite (qv_len _ _ _ _ _ _ V); exact Hlt).
    destruct (nth_error_ex (c_queues c) i Hlq) as (q & Hq). rewrite (proj2 (nth_queue_ok _ _ _) Hq). cbn [bind].
    pose proof (nth_error_Forall _ _ _ _ (qv_wf _ _ _ _ _ _ V) Hq) as W.
    destruct (q_take_tasks_np q (sum_counts counts) (pf_order_of sol rq) W (Hsz q Hq)) as [N1 N2].
    destruct (q_take_tasks q (sum_counts counts) (pf_order_of sol rq)) as [[tasks q']| |] eqn:Et;
      [|split; [reflexivity | discriminate] | discriminate N1].
    cbn [bind]. specialize (N2 _ _ eq_refl).
    destruct (q_take_tasks_D _ _ _ _ _ W Et) as [T ND]. specialize (ND (QV_uniq _ _ _ _ _ _ _ _ V Hq)).
    set (c1 := with_queues c (set_queue (c_queues c) i q')).
    assert (W1 : WI c1) by (eapply WIX_frame; [| | | |exact HW]; reflexivity).
    assert (Q1 : QI (exL Nowhere tasks none) [] c1).
    { unfold QI. cbn [c1 c_tasks c_queues c_redirects c_rqs with_queues]. eapply QV_take; eassumption. }
    assert (P1 : PT c1 i tasks) by exact (taken_PT c i q q' tasks V Hq T).
    assert (F01 : SF (fun y => In y tasks) (Wc counts) (eq i) c c1) by (apply SF_set_queue; reflexivity).
    destruct (rr_loop_ok i v (rq_res rqd) (S (length tasks)) c1 m counts tasks W1 Q1 ND P1) as (c2 & m2 & E2 & W2 & Q2 & M2 & F2 & S2);
      [exact Hsn | exact HM | unfold nlen in N2 |- *; lia | lia |].
    rewrite E2. cbn [bind].
    assert (F02 : SF (fun y => In y tasks) (Wc counts) (eq i) c c2).
    { eapply SF_trans; [exact F01|]. eapply SF_weaken; [| | |exact F2]; [auto | auto | intros j []]. }
    assert (SnOK2 : SnOK c2 r).
    { split; [exact Hnr|]. rewrite Forall_forall in *. intros x Hx. destruct (HFr x Hx) as (X1 & X2 & X3).
      assert (Hne : cidx x <> i) by (intros Ex; apply Hni; rewrite <- Ex; apply in_map; exact Hx).
      split; [rewrite (sf_rqs _ _ _ _ _ F02); exact X1|]. split.
      - intros q0 Hq0. apply X2. rewrite <- (sf_q _ _ _ _ _ F02 (cidx x)); [exact Hq0 | congruence].
      - intros y Hy. apply S2. apply (SNP_same c c1 eq_refl). apply X3. exact Hy. }
    destruct (IH c2 m2 W2 Q2 M2 SnOK2) as [N3 N4]. split; [exact N3|].
    intros cf mf Hf. destruct (N4 cf mf Hf) as (Wf & Qf & Mf & Ff). split; [exact Wf|]. split; [exact Qf|]. split; [exact Mf|].
    eapply SF_trans.
    + eapply SF_weaken; [| | |exact F02].
      * intros y Hy. destruct (P1 y Hy) as (t & Ht & _ & Hr). exists t. split; [exact Ht | left; symmetry; exact Hr].
      * intros y Hy. exists (rq, v, counts). split; [left; reflexivity | exact Hy].
      * intros j <-. left. reflexivity.
    + eapply SF_weaken; [| | |exact Ff].
      * intros y (t2 & Ht2 & Hin). destruct (SF_find_back _ _ _ _ _ _ _ F02 Ht2) as (t & Ht & Et2).
        exists t. split; [exact Ht|]. right. rewrite Et2 in Hin. exact Hin.
      * intros y (x & Hx & Hy). exists x. split; [right; exact Hx | exact Hy].
      * intros j Hj. right. exact Hj.
Qed.
