(** C03, the dependency invariant: "a task is never started before every task it depends on has
    finished".  This file: the vocabulary and the pure part of the argument.

    The core's task map is viewed as a finite map [tid -> option task] (through [find_task]); the
    invariant [DI] and its relaxation [DX] (used while a consumer-closed set of tasks is being
    removed one by one) talk about ids, states, [t_deps] and [t_consumers] only.  The lemmas of
    this file say which changes of the map keep the invariant:
      - [DX_SC]     state-only changes  (ready -> placed -> ready again ...),
      - [DI_finish] a placed task finishes: it disappears, its consumers are woken,
      - [DX_remove] one task of a doomed (consumer-closed) set disappears,
      - [DI_add]    a new task is registered with its dependencies. *)
From HQ Require Import Base.Prelude Cluster.Types Cluster.Core Cluster.BijBase.
From HQ Require Import Cluster.ModelFacts.
From Coq Require Import ZArith Lia Sorting.Sorted.
Local Open Scope N_scope.

Arguments N.add : simpl never.
Arguments N.sub : simpl never.

Lemma tid_remove_sub x y l : In y (tid_remove x l) -> In y l.
Proof.
  induction l as [|h t IH]; cbn [tid_remove]; [intros []|].
  destruct (tid_eqb x h); [intros H; right; exact H|]. intros [H|H]; [left; exact H | right; auto].
Qed.
Lemma tid_remove_keeps x y l : In y l -> y <> x -> In y (tid_remove x l).
Proof.
  induction l as [|h t IH]; cbn [tid_remove]; [intros []|]. intros [H|H] Hne.
  - subst h. destruct (tid_eqb x y) eqn:E; [apply tid_eqb_eq in E; congruence | left; reflexivity].
  - destruct (tid_eqb x h); [exact H | right; auto].
Qed.
Lemma tid_remove_NoDup x l : NoDup l -> NoDup (tid_remove x l).
Proof.
  induction l as [|h t IH]; cbn [tid_remove]; intros H; [constructor|].
  inversion H as [|? ? Hn Ht]; subst. destruct (tid_eqb x h); [exact Ht|].
  constructor; [intros Hin; apply Hn; eapply tid_remove_sub; exact Hin | auto].
Qed.
Lemma tid_remove_gone x l : NoDup l -> ~ In x (tid_remove x l).
Proof.
  induction l as [|h t IH]; cbn [tid_remove]; intros H; [intros []|].
  inversion H as [|? ? Hn Ht]; subst. destruct (tid_eqb x h) eqn:E.
  - apply tid_eqb_eq in E. subst h. exact Hn.
  - apply tid_eqb_neq in E. intros [Hx|Hx]; [congruence | exact (IH Ht Hx)].
Qed.

Lemma tid_insert_NoDup x l : ~ In x l -> NoDup l -> NoDup (tid_insert x l).
Proof.
  induction l as [|h t IH]; cbn [tid_insert]; intros Hn H.
  - constructor; [intros [] | constructor].
  - destruct (tid_eqb x h) eqn:E; [exact H|]. destruct (tid_ltb x h); [constructor; assumption|].
    inversion H as [|? ? Hh Ht]; subst. constructor.
    + intros Hin. destruct (tid_insert_in _ _ _ Hin) as [->|Hin']; [apply Hn; left; reflexivity | contradiction].
    + apply IH; [intros Hx; apply Hn; right; exact Hx | exact Ht].
Qed.
Lemma tid_insert_length x l : ~ In x l -> length (tid_insert x l) = S (length l).
Proof.
  induction l as [|h t IH]; cbn [tid_insert]; intros Hn; [reflexivity|].
  destruct (tid_eqb x h) eqn:E; [apply tid_eqb_eq in E; subst; exfalso; apply Hn; left; reflexivity|].
  destruct (tid_ltb x h); [reflexivity|]. cbn [length]. rewrite IH; [reflexivity | intros Hx; apply Hn; right; exact Hx].
Qed.

Lemma flen_ext {A} (p q : A -> bool) l : (forall x, In x l -> p x = q x) -> length (filter p l) = length (filter q l).
Proof.
  induction l as [|h t IH]; intros H; [reflexivity|]. cbn [filter].
  rewrite (H h (or_introl eq_refl)). destruct (q h); cbn [length]; rewrite IH; auto; intros x Hx; apply H; right; exact Hx.
Qed.
Lemma flen_le {A} (p q : A -> bool) l : (forall x, In x l -> p x = true -> q x = true) -> (length (filter p l) <= length (filter q l))%nat.
Proof.
  induction l as [|h t IH]; intros H; [apply Nat.le_refl|]. cbn [filter].
  assert (IH' : (length (filter p t) <= length (filter q t))%nat) by (apply IH; intros x Hx; apply H; right; exact Hx).
  destruct (p h) eqn:E.
  - rewrite (H h (or_introl eq_refl) E). cbn [length]. lia.
  - destruct (q h); cbn [length]; lia.
Qed.
Lemma flen_zero {A} (p : A -> bool) l : length (filter p l) = O <-> forall x, In x l -> p x = false.
Proof.
  induction l as [|h t IH]; [split; [intros _ x [] | reflexivity]|]. cbn [filter]. destruct (p h) eqn:E.
  - cbn [length]. split; [discriminate|]. intros H. rewrite (H h (or_introl eq_refl)) in E. discriminate.
  - rewrite IH. split; [intros H x [<-|Hx]; auto | intros H x Hx; apply H; right; exact Hx].
Qed.
Lemma flen_pos {A} (p : A -> bool) l x : In x l -> p x = true -> (1 <= length (filter p l))%nat.
Proof.
  intros Hin Hp. destruct (length (filter p l)) eqn:E; [|lia].
  rewrite (proj1 (flen_zero p l) E x Hin) in Hp. discriminate.
Qed.
Lemma flen_all {A} (p : A -> bool) l : (forall x, In x l -> p x = true) -> length (filter p l) = length l.
Proof.
  induction l as [|h t IH]; intros H; [reflexivity|]. cbn [filter]. rewrite (H h (or_introl eq_refl)). cbn [length].
  rewrite IH; [reflexivity | intros x Hx; apply H; right; exact Hx].
Qed.
(** One element of a duplicate-free list stops being counted. *)
Lemma flen_drop (p q : tid -> bool) l f :
  NoDup l -> In f l -> q f = true -> p f = false -> (forall x, In x l -> x <> f -> p x = q x) ->
  S (length (filter p l)) = length (filter q l).
Proof.
  induction l as [|h t IH]; intros Hnd Hin Hq Hp Hext; [destruct Hin|].
  inversion Hnd as [|? ? Hn Ht]; subst. cbn [filter]. destruct Hin as [->|Hin].
  - rewrite Hq, Hp. cbn [length]. f_equal. apply flen_ext. intros x Hx. apply Hext; [right; exact Hx|].
    intros ->. contradiction.
  - assert (Hne : h <> f) by (intros ->; contradiction).
    rewrite (Hext h (or_introl eq_refl) Hne).
    assert (IH' : S (length (filter p t)) = length (filter q t)).
    { apply IH; auto. intros x Hx. apply Hext. right; exact Hx. }
    destruct (q h); cbn [length]; lia.
Qed.

Lemma NoDup_filter' {A} (p : A -> bool) l : NoDup l -> NoDup (filter p l).
Proof.
  induction l as [|h t IH]; intros H; [constructor|]. inversion H as [|? ? Hn Ht]; subst. cbn [filter].
  destruct (p h); [constructor; [intros Hin; apply filter_In in Hin; apply Hn; apply Hin | auto] | auto].
Qed.

Definition tmap := tid -> option task.
Definition inm (m : tmap) (d : tid) : bool := match m d with Some _ => true | None => false end.
(** Number of dependencies of [t] that are still in the map. *)
Definition dcount (m : tmap) (t : task) : nat := length (filter (inm m) (t_deps t)).
Definition mdel (m : tmap) (f : tid) : tmap := fun x => if tid_eqb x f then None else m x.
Definition mupd (m : tmap) (id : tid) (t : task) : tmap := fun x => if tid_eqb x id then Some t else m x.

Lemma inm_true m d : inm m d = true <-> exists t, m d = Some t.
Proof. unfold inm. destruct (m d); split; [eauto | auto | intros H; discriminate | intros (t & H); discriminate]. Qed.
Lemma inm_false m d : inm m d = false <-> m d = None.
Proof. unfold inm. destruct (m d); split; congruence. Qed.

Definition same_edges (t t' : task) : Prop :=
  t_id t' = t_id t /\ t_deps t' = t_deps t /\ t_consumers t' = t_consumers t.

(** States whose dependency counter must be zero / may be entered with a zero counter. *)
Definition z_old (s : tstate) : Prop := match s with Waiting n => n = 0 | _ => True end.
Definition z_new (s : tstate) : Prop := match s with Waiting n => n = 0 | Finished => False | _ => True end.
Definition st_step (s s' : tstate) : Prop := s' = s \/ (z_old s /\ z_new s').

Lemma z_new_old s : z_new s -> z_old s.
Proof. destruct s; cbn; auto. Qed.
Lemma st_step_refl s : st_step s s.
Proof. left; reflexivity. Qed.
Lemma st_step_trans a b c : st_step a b -> st_step b c -> st_step a c.
Proof.
  intros [->|[O1 N1]] [->|[O2 N2]]; [left; reflexivity | right; auto | right; auto | right; auto].
Qed.
Lemma st_step_z_old a b : st_step a b -> z_old a -> z_old b.
Proof. intros [->|[_ N]] H; [exact H | apply z_new_old; exact N]. Qed.

(** [SC m m']: same tasks, same edges, only states moved (never from a positive counter). *)
Definition SC (m m' : tmap) : Prop :=
  forall id, match m id, m' id with
             | Some t, Some t' => same_edges t t' /\ st_step (t_state t) (t_state t')
             | None, None => True
             | _, _ => False
             end.

Lemma SC_refl m : SC m m.
Proof. intros id. destruct (m id); [split; [repeat split | apply st_step_refl] | exact I]. Qed.
Lemma SC_ext m m' : (forall x, m' x = m x) -> SC m m'.
Proof. intros E id. rewrite E. destruct (m id); [split; [repeat split | apply st_step_refl] | exact I]. Qed.
Lemma SC_trans m1 m2 m3 : SC m1 m2 -> SC m2 m3 -> SC m1 m3.
Proof.
  intros A B id. specialize (A id). specialize (B id).
  destruct (m1 id) as [t1|], (m2 id) as [t2|], (m3 id) as [t3|]; try contradiction; auto.
  destruct A as [(I1 & D1 & C1) S1], B as [(I2 & D2 & C2) S2]. split; [repeat split; congruence | eapply st_step_trans; eassumption].
Qed.
Lemma SC_some m m' id t : SC m m' -> m id = Some t -> exists t', m' id = Some t' /\ same_edges t t' /\ st_step (t_state t) (t_state t').
Proof. intros H E. specialize (H id). rewrite E in H. destruct (m' id) as [t'|]; [eauto | contradiction]. Qed.
Lemma SC_some' m m' id t' : SC m m' -> m' id = Some t' -> exists t, m id = Some t /\ same_edges t t' /\ st_step (t_state t) (t_state t').
Proof. intros H E. specialize (H id). rewrite E in H. destruct (m id) as [t|]; [eauto | contradiction]. Qed.
Lemma SC_inm m m' d : SC m m' -> inm m' d = inm m d.
Proof. intros H. specialize (H d). unfold inm. destruct (m d), (m' d); try contradiction; reflexivity. Qed.
Lemma SC_dcount m m' t t' : SC m m' -> t_deps t' = t_deps t -> dcount m' t' = dcount m t.
Proof. intros H E. unfold dcount. rewrite E. apply flen_ext. intros x _. apply SC_inm. exact H. Qed.

Lemma SC_upd m m' id t t' :
  m id = Some t -> same_edges t t' -> st_step (t_state t) (t_state t') ->
  (forall x, m' x = mupd m id t' x) -> SC m m'.
Proof.
  intros Hm He Hs E x. rewrite E. unfold mupd. destruct (tid_eqb x id) eqn:Ex.
  - apply tid_eqb_eq in Ex. subst x. rewrite Hm. split; assumption.
  - destruct (m x); [split; [repeat split | apply st_step_refl] | exact I].
Qed.
Lemma SC_del m1 m2 a b f : SC m1 m2 -> (forall x, a x = mdel m1 f x) -> (forall x, b x = mdel m2 f x) -> SC a b.
Proof.
  intros H Ea Eb x. rewrite Ea, Eb. unfold mdel. destruct (tid_eqb x f); [exact I | apply H].
Qed.

Definition cnt_ok (doomed : Prop) (s : tstate) (k : nat) : Prop :=
  match s with
  | Waiting n => (doomed -> (k <= N.to_nat n)%nat) /\ (~ doomed -> n = N.of_nat k)
  | _ => k = O
  end.

Record DX (X : list tid) (m : tmap) : Prop := mkDX {
  dx_id : forall id t, m id = Some t -> t_id t = id;
  dx_nofin : forall id t, m id = Some t -> t_state t <> Finished;
  dx_nd : forall id t, m id = Some t -> NoDup (t_deps t);
  dx_nc : forall id t, m id = Some t -> NoDup (t_consumers t);
  dx_cnt : forall id t, m id = Some t -> cnt_ok (In id X) (t_state t) (dcount m t);
  (** survivors do not depend on doomed tasks *)
  dx_closed : forall id t d, m id = Some t -> ~ In id X -> In d (t_deps t) -> inm m d = true -> ~ In d X;
  (** consumers are live waiting tasks that list the task as a dependency ... *)
  dx_cons : forall id t x, m id = Some t -> In x (t_consumers t) ->
            exists ct, m x = Some ct /\ is_waiting ct = true /\ In id (t_deps ct);
  (** ... and every dependency edge into the map is mirrored *)
  dx_deps : forall id t d dt, m id = Some t -> In d (t_deps t) -> m d = Some dt -> In id (t_consumers dt)
}.

Definition DI (m : tmap) : Prop := DX [] m.

Lemma DI_cnt m id t : DI m -> m id = Some t ->
  match t_state t with Waiting n => n = N.of_nat (dcount m t) | _ => dcount m t = O end.
Proof.
  intros H E. pose proof (dx_cnt _ _ H _ _ E) as C. unfold cnt_ok in C.
  destruct (t_state t); try exact C. apply C. intros [].
Qed.

(** A task with a zero-counter state has no dependency in the map. *)
Lemma DI_zero m id t : DI m -> m id = Some t -> z_old (t_state t) -> dcount m t = O.
Proof.
  intros H E Z. pose proof (DI_cnt _ _ _ H E) as C. destruct (t_state t); try exact C.
  cbn in Z. lia.
Qed.

Lemma DX_SC X m m' : DX X m -> SC m m' -> (forall id t t', In id X -> m id = Some t -> m' id = Some t' -> t_state t' = t_state t) -> DX X m'.
Proof.
  intros D S HX. constructor.
  - intros id t' E. destruct (SC_some' _ _ _ _ S E) as (t & Et & (Hi & _) & _). rewrite Hi. eapply dx_id; eassumption.
  - intros id t' E. destruct (SC_some' _ _ _ _ S E) as (t & Et & _ & [->|[_ Zn]]); [eapply dx_nofin; eassumption|].
    intros F. rewrite F in Zn. exact Zn.
  - intros id t' E. destruct (SC_some' _ _ _ _ S E) as (t & Et & (_ & Hd & _) & _). rewrite Hd. eapply dx_nd; eassumption.
  - intros id t' E. destruct (SC_some' _ _ _ _ S E) as (t & Et & (_ & _ & Hc) & _). rewrite Hc. eapply dx_nc; eassumption.
  - intros id t' E. destruct (SC_some' _ _ _ _ S E) as (t & Et & (_ & Hd & _) & St).
    rewrite (SC_dcount _ _ t t' S Hd). pose proof (dx_cnt _ _ D _ _ Et) as C.
    destruct (in_dec tid_dec id X) as [Hin|Hout].
    + rewrite (HX _ _ _ Hin Et E). exact C.
    + destruct St as [->|[Zo Zn]]; [exact C|].
      assert (Hz : dcount m t = O).
      { unfold cnt_ok in C. destruct (t_state t); try exact C. cbn in Zo. subst. destruct C as [_ C]. specialize (C Hout). lia. }
      rewrite Hz. unfold cnt_ok. destruct (t_state t'); try reflexivity. cbn in Zn.
      subst. split; [intros; lia | intros; reflexivity].
  - intros id t' d E Hn Hd Hi. destruct (SC_some' _ _ _ _ S E) as (t & Et & (_ & Hdeps & _) & _).
    rewrite Hdeps in Hd. rewrite (SC_inm _ _ d S) in Hi. eapply dx_closed; eassumption.
  - intros id t' x E Hx. destruct (SC_some' _ _ _ _ S E) as (t & Et & (_ & _ & Hc) & _). rewrite Hc in Hx.
    destruct (dx_cons _ _ D _ _ _ Et Hx) as (ct & Ec & Wc & Ic).
    destruct (SC_some _ _ _ _ S Ec) as (ct' & Ec' & (_ & Hd' & _) & St'). exists ct'. split; [exact Ec'|]. split; [|rewrite Hd'; exact Ic].
    destruct St' as [Es|[Zo _]]; [unfold is_waiting in *; rewrite Es; exact Wc|].
    (* a waiting consumer of a live task has a positive counter *)
    exfalso. unfold is_waiting in Wc. destruct (t_state ct) eqn:Est; try discriminate. cbn in Zo. subst.
    pose proof (dx_cnt _ _ D _ _ Ec) as C. rewrite Est in C. cbn in C.
    assert (Hp : (1 <= dcount m ct)%nat) by (eapply flen_pos; [exact Ic | apply inm_true; eauto]).
    destruct (in_dec tid_dec x X) as [Hin|Hout]; [destruct C as [C _]; specialize (C Hin); cbn in C; lia | destruct C as [_ C]; specialize (C Hout); lia].
  - intros id t' d dt' E Hd Ed. destruct (SC_some' _ _ _ _ S E) as (t & Et & (_ & Hdeps & _) & _). rewrite Hdeps in Hd.
    destruct (SC_some' _ _ _ _ S Ed) as (dt & Edt & (_ & _ & Hc) & _). rewrite Hc. eapply dx_deps; eassumption.
Qed.

Lemma DI_SC m m' : DI m -> SC m m' -> DI m'.
Proof. intros D S. eapply DX_SC; [exact D | exact S | intros id t t' []]. Qed.

Lemma DI_make (m : tmap) :
  (forall id t, m id = Some t -> t_id t = id) ->
  (forall id t, m id = Some t -> t_state t <> Finished) ->
  (forall id t, m id = Some t -> NoDup (t_deps t)) ->
  (forall id t, m id = Some t -> NoDup (t_consumers t)) ->
  (forall id t, m id = Some t -> match t_state t with Waiting n => n = N.of_nat (dcount m t) | _ => dcount m t = O end) ->
  (forall id t x, m id = Some t -> In x (t_consumers t) -> exists ct, m x = Some ct /\ is_waiting ct = true /\ In id (t_deps ct)) ->
  (forall id t d dt, m id = Some t -> In d (t_deps t) -> m d = Some dt -> In id (t_consumers dt)) ->
  DI m.
Proof.
  intros A B C D E F G. constructor; auto; try (intros id t d _ _ _ _ []; fail).
  intros id t Em. specialize (E id t Em). unfold cnt_ok. destruct (t_state t); try exact E.
  split; [intros [] | intros _; exact E].
Qed.

Definition dec_state (t : task) : task :=
  match t_state t with Waiting n => with_state t (Waiting (n - 1)) | _ => t end.
Definition woken (m : tmap) (C : list tid) : tmap :=
  fun x => if tid_mem x C then option_map dec_state (m x) else m x.

Lemma dec_state_edges t : same_edges t (dec_state t).
Proof. unfold dec_state. destruct (t_state t); repeat split. Qed.
Lemma dec_state_waiting t : is_waiting (dec_state t) = is_waiting t.
Proof. unfold dec_state, is_waiting. destruct (t_state t) eqn:E; cbn; try rewrite E; reflexivity. Qed.

Lemma DI_finish m m' f t :
  DI m -> m f = Some t -> is_waiting t = false ->
  (forall x, m' x = woken (mdel m f) (t_consumers t) x) -> DI m'.
Proof.
  intros D Ef Hnw E.
  set (C := t_consumers t) in *.
  assert (H1 : forall x tx', m' x = Some tx' -> x <> f /\ exists tx, m x = Some tx /\ tx' = (if tid_mem x C then dec_state tx else tx)).
  { intros x tx' Ex. rewrite E in Ex. unfold woken, mdel in Ex. destruct (tid_eqb x f) eqn:Exf.
    - destruct (tid_mem x C); discriminate.
    - apply tid_eqb_neq in Exf. split; [exact Exf|]. destruct (m x) as [tx|]; [|destruct (tid_mem x C); discriminate].
      exists tx. split; [reflexivity|]. destruct (tid_mem x C); cbn in Ex; inversion Ex; reflexivity. }
  assert (H2 : forall x tx, m x = Some tx -> x <> f -> m' x = Some (if tid_mem x C then dec_state tx else tx)).
  { intros x tx Ex Hne. rewrite E. unfold woken, mdel. apply tid_eqb_neq in Hne. rewrite Hne, Ex. destruct (tid_mem x C); reflexivity. }
  assert (Hedges : forall x tx, same_edges tx (if tid_mem x C then dec_state tx else tx)).
  { intros x tx. destruct (tid_mem x C); [apply dec_state_edges | repeat split]. }
  assert (Hinm : forall d, inm m' d = if tid_eqb d f then false else inm m d).
  { intros d. unfold inm. rewrite E. unfold woken, mdel. destruct (tid_eqb d f); [destruct (tid_mem d C); reflexivity|].
    destruct (tid_mem d C), (m d); reflexivity. }
  (* membership in C = depends on f *)
  assert (HC : forall x tx, m x = Some tx -> (In x C <-> In f (t_deps tx))).
  { intros x tx Ex. split.
    - intros Hx. destruct (dx_cons _ _ D _ _ _ Ef Hx) as (ct & Ec & _ & Hd). rewrite Ex in Ec. inversion Ec; subst. exact Hd.
    - intros Hd. eapply (dx_deps _ _ D x tx f t); eassumption. }
  apply DI_make.
  - intros x tx' Ex. destruct (H1 _ _ Ex) as (_ & tx & Etx & ->). destruct (Hedges x tx) as (Hi & _). rewrite Hi. eapply dx_id; eassumption.
  - intros x tx' Ex. destruct (H1 _ _ Ex) as (_ & tx & Etx & ->). pose proof (dx_nofin _ _ D _ _ Etx) as Hn.
    destruct (tid_mem x C); [|exact Hn]. unfold dec_state. destruct (t_state tx) eqn:Est; try (rewrite Est; exact Hn). cbn. discriminate.
  - intros x tx' Ex. destruct (H1 _ _ Ex) as (_ & tx & Etx & ->). destruct (Hedges x tx) as (_ & Hd & _). rewrite Hd. eapply dx_nd; eassumption.
  - intros x tx' Ex. destruct (H1 _ _ Ex) as (_ & tx & Etx & ->). destruct (Hedges x tx) as (_ & _ & Hc). rewrite Hc. eapply dx_nc; eassumption.
  - intros x tx' Ex. destruct (H1 _ _ Ex) as (Hne & tx & Etx & ->).
    pose proof (DI_cnt _ _ _ D Etx) as Cn. pose proof (HC _ _ Etx) as HCx.
    destruct (tid_mem x C) eqn:Em.
    + apply tid_mem_In in Em. pose proof (proj1 HCx Em) as Hfd.
      destruct (dx_cons _ _ D _ _ _ Ef Em) as (ct & Ec & Wc & _). rewrite Etx in Ec. inversion Ec; subst ct.
      assert (Hdrop : S (dcount m' (dec_state tx)) = dcount m tx).
      { unfold dcount. destruct (dec_state_edges tx) as (_ & Hd & _). rewrite Hd.
        apply (flen_drop (inm m') (inm m) (t_deps tx) f); [eapply dx_nd; eassumption | exact Hfd | apply inm_true; eauto | rewrite Hinm, tid_eqb_refl; reflexivity|].
        intros y _ Hy. rewrite Hinm. apply tid_eqb_neq in Hy. rewrite Hy. reflexivity. }
      unfold is_waiting in Wc. unfold dec_state in *. destruct (t_state tx) eqn:Est; try discriminate. cbn [t_state with_state]. lia.
    + apply tid_mem_nIn in Em.
      assert (Hsame : dcount m' tx = dcount m tx).
      { unfold dcount. apply flen_ext. intros y Hy. rewrite Hinm. destruct (tid_eqb y f) eqn:Ey; [|reflexivity].
        apply tid_eqb_eq in Ey. subst y. exfalso. apply Em. apply HCx. exact Hy. }
      rewrite Hsame. exact Cn.
  - intros x tx' y Ex Hy. destruct (H1 _ _ Ex) as (Hne & tx & Etx & ->).
    destruct (Hedges x tx) as (_ & _ & Hc). rewrite Hc in Hy.
    destruct (dx_cons _ _ D _ _ _ Etx Hy) as (cy & Ey & Wy & Iy).
    assert (Hyf : y <> f). { intros ->. rewrite Ef in Ey. inversion Ey; subst. congruence. }
    exists (if tid_mem y C then dec_state cy else cy). split; [apply H2; assumption|].
    destruct (Hedges y cy) as (_ & Hd & _). rewrite Hd. split; [|exact Iy].
    destruct (tid_mem y C); [rewrite dec_state_waiting|]; exact Wy.
  - intros x tx' d dt' Ex Hd Ed. destruct (H1 _ _ Ex) as (Hne & tx & Etx & ->). destruct (H1 _ _ Ed) as (Hdf & dt & Edt & ->).
    destruct (Hedges x tx) as (_ & Hdx & _). rewrite Hdx in Hd.
    destruct (Hedges d dt) as (_ & _ & Hcd). rewrite Hcd. eapply dx_deps; eassumption.
Qed.

Definition rmc (m : tmap) (D : list tid) (cid : tid) : tmap :=
  fun x => match m x with
           | Some t => if tid_mem x D then Some (with_consumers t (tid_remove cid (t_consumers t))) else Some t
           | None => None
           end.

Lemma rmc_nodeps m id t x : dcount m t = O -> rmc (mdel m id) (t_deps t) id x = mdel m id x.
Proof.
  intros Hz. unfold rmc, mdel. destruct (tid_eqb x id); [reflexivity|]. destruct (m x) as [tx|] eqn:Ex; [|reflexivity].
  destruct (tid_mem x (t_deps t)) eqn:Em; [|reflexivity]. apply tid_mem_In in Em.
  pose proof (proj1 (flen_zero _ _) Hz x Em) as Hf. apply inm_false in Hf. congruence.
Qed.

Lemma DX_remove X m m' id t :
  DX X m -> In id X -> m id = Some t ->
  (forall x, m' x = rmc (mdel m id) (t_deps t) id x) -> DX X m'.
Proof.
  intros D HX Ef E.
  set (Dp := t_deps t) in *.
  pose (upd := fun (x : tid) (tx : task) => if tid_mem x Dp then with_consumers tx (tid_remove id (t_consumers tx)) else tx).
  assert (H1 : forall x tx', m' x = Some tx' -> x <> id /\ exists tx, m x = Some tx /\ tx' = upd x tx).
  { intros x tx' Ex. rewrite E in Ex. unfold rmc, mdel in Ex. destruct (tid_eqb x id) eqn:Exf; [discriminate|].
    apply tid_eqb_neq in Exf. split; [exact Exf|]. destruct (m x) as [tx|]; [|discriminate]. exists tx. split; [reflexivity|].
    unfold upd. destruct (tid_mem x Dp); inversion Ex; reflexivity. }
  assert (H2 : forall x tx, m x = Some tx -> x <> id -> m' x = Some (upd x tx)).
  { intros x tx Ex Hne. rewrite E. unfold rmc, mdel. apply tid_eqb_neq in Hne. rewrite Hne, Ex. unfold upd. destruct (tid_mem x Dp); reflexivity. }
  assert (Hst : forall x tx, t_id (upd x tx) = t_id tx /\ t_deps (upd x tx) = t_deps tx /\ t_state (upd x tx) = t_state tx).
  { intros x tx. unfold upd. destruct (tid_mem x Dp); repeat split. }
  assert (Hcsub : forall x tx y, In y (t_consumers (upd x tx)) -> In y (t_consumers tx)).
  { intros x tx y. unfold upd. destruct (tid_mem x Dp); [cbn; apply tid_remove_sub | auto]. }
  assert (Hinm : forall d, inm m' d = if tid_eqb d id then false else inm m d).
  { intros d. unfold inm. rewrite E. unfold rmc, mdel. destruct (tid_eqb d id); [reflexivity|].
    destruct (m d); [destruct (tid_mem d Dp); reflexivity | reflexivity]. }
  assert (Hle : forall tx, (dcount m' tx <= dcount m tx)%nat).
  { intros tx. unfold dcount. apply flen_le. intros y _. rewrite Hinm. destruct (tid_eqb y id); [discriminate | auto]. }
  constructor.
  - intros x tx' Ex. destruct (H1 _ _ Ex) as (_ & tx & Etx & ->). destruct (Hst x tx) as (Hi & _). rewrite Hi. eapply dx_id; eassumption.
  - intros x tx' Ex. destruct (H1 _ _ Ex) as (_ & tx & Etx & ->). destruct (Hst x tx) as (_ & _ & Hs). rewrite Hs. eapply dx_nofin; eassumption.
  - intros x tx' Ex. destruct (H1 _ _ Ex) as (_ & tx & Etx & ->). destruct (Hst x tx) as (_ & Hd & _). rewrite Hd. eapply dx_nd; eassumption.
  - intros x tx' Ex. destruct (H1 _ _ Ex) as (_ & tx & Etx & ->). pose proof (dx_nc _ _ D _ _ Etx) as Hn.
    unfold upd. destruct (tid_mem x Dp); [cbn; apply tid_remove_NoDup; exact Hn | exact Hn].
  - intros x tx' Ex. destruct (H1 _ _ Ex) as (Hne & tx & Etx & ->). destruct (Hst x tx) as (_ & Hd & Hs).
    pose proof (dx_cnt _ _ D _ _ Etx) as Cn. rewrite Hs.
    assert (Hdc : dcount m' (upd x tx) = dcount m' tx) by (unfold dcount; rewrite Hd; reflexivity). rewrite Hdc.
    destruct (in_dec tid_dec x X) as [Hin|Hout].
    + pose proof (Hle tx) as L. unfold cnt_ok in *. destruct (t_state tx); try lia.
      destruct Cn as [Cn _]. specialize (Cn Hin). split; [intros _; lia | intros Hc; contradiction].
    + assert (Hsame : dcount m' tx = dcount m tx).
      { unfold dcount. apply flen_ext. intros y Hy. rewrite Hinm. destruct (tid_eqb y id) eqn:Ey; [|reflexivity].
        apply tid_eqb_eq in Ey. subst y. exfalso. apply (dx_closed _ _ D x tx id Etx Hout Hy); [apply inm_true; eauto | exact HX]. }
      rewrite Hsame. exact Cn.
  - intros x tx' d Ex Hout Hd Hi. destruct (H1 _ _ Ex) as (Hne & tx & Etx & ->). destruct (Hst x tx) as (_ & Hdx & _). rewrite Hdx in Hd.
    rewrite Hinm in Hi. destruct (tid_eqb d id); [discriminate|]. eapply dx_closed; eassumption.
  - intros x tx' y Ex Hy. destruct (H1 _ _ Ex) as (Hne & tx & Etx & ->).
    pose proof (Hcsub _ _ _ Hy) as Hy0.
    destruct (dx_cons _ _ D _ _ _ Etx Hy0) as (cy & Ey & Wy & Iy).
    assert (Hyi : y <> id).
    { intros ->. rewrite Ef in Ey. inversion Ey; subst cy. fold Dp in Iy.
      apply tid_mem_In in Iy. unfold upd in Hy. rewrite Iy in Hy. cbn in Hy.
      exact (tid_remove_gone _ _ (dx_nc _ _ D _ _ Etx) Hy). }
    exists (upd y cy). split; [apply H2; assumption|]. destruct (Hst y cy) as (_ & Hd & Hs). rewrite Hd. split; [|exact Iy].
    unfold is_waiting in *. rewrite Hs. exact Wy.
  - intros x tx' d dt' Ex Hd Ed. destruct (H1 _ _ Ex) as (Hne & tx & Etx & ->). destruct (H1 _ _ Ed) as (Hdi & dt & Edt & ->).
    destruct (Hst x tx) as (_ & Hdx & _). rewrite Hdx in Hd.
    pose proof (dx_deps _ _ D _ _ _ _ Etx Hd Edt) as Hin.
    unfold upd. destruct (tid_mem d Dp); [cbn; apply tid_remove_keeps; assumption | exact Hin].
Qed.

Lemma DX_start X m :
  DI m -> (forall x tx y, In x X -> m x = Some tx -> In y (t_consumers tx) -> In y X) -> DX X m.
Proof.
  intros D Hcl. constructor; try (apply D).
  - intros id t Em. pose proof (DI_cnt _ _ _ D Em) as C. unfold cnt_ok. destruct (t_state t); try exact C.
    split; [intros _; lia | intros _; exact C].
  - intros id t d Em Hout Hd Hi Hdx. apply inm_true in Hi. destruct Hi as (dt & Edt).
    apply Hout. eapply Hcl; [exact Hdx | exact Edt | eapply dx_deps; eassumption].
Qed.

Lemma DX_end X m : DX X m -> (forall x, In x X -> m x = None) -> DI m.
Proof.
  intros D Hgone. constructor; try (apply D).
  - intros id t Em. pose proof (dx_cnt _ _ D _ _ Em) as C. unfold cnt_ok in *. destruct (t_state t); try exact C.
    assert (Hout : ~ In id X) by (intros Hin; rewrite (Hgone _ Hin) in Em; discriminate).
    split; [intros [] | intros _; apply C; exact Hout].
  - intros id t d _ _ _ _ [].
Qed.

Definition regm (m : tmap) (D : list tid) (id : tid) : tmap :=
  fun x => match m x with
           | Some t => if tid_mem x D then Some (with_consumers t (tid_insert id (t_consumers t))) else Some t
           | None => None
           end.

Lemma DI_add m m' t kept :
  DI m -> m (t_id t) = None -> (forall x tx, m x = Some tx -> ~ In (t_id t) (t_deps tx)) ->
  NoDup (t_deps t) -> t_consumers t = [] -> kept = filter (inm m) (t_deps t) ->
  (forall x, m' x = mupd (regm m (t_deps t) (t_id t)) (t_id t)
                         (with_state (with_deps t kept) (Waiting (N.of_nat (length kept)))) x) ->
  DI m'.
Proof.
  intros D Hfresh Hnodep Hnd Hnc Hk E.
  set (id := t_id t) in *. set (Dp := t_deps t) in *.
  set (t1 := with_state (with_deps t kept) (Waiting (N.of_nat (length kept)))) in *.
  pose (upd := fun (x : tid) (tx : task) => if tid_mem x Dp then with_consumers tx (tid_insert id (t_consumers tx)) else tx).
  assert (Hnew : m' id = Some t1) by (rewrite E; unfold mupd; rewrite tid_eqb_refl; reflexivity).
  assert (H1 : forall x tx', m' x = Some tx' -> (x = id /\ tx' = t1) \/ (x <> id /\ exists tx, m x = Some tx /\ tx' = upd x tx)).
  { intros x tx' Ex. rewrite E in Ex. unfold mupd, regm in Ex. destruct (tid_eqb x id) eqn:Exi.
    - apply tid_eqb_eq in Exi. left. inversion Ex. auto.
    - apply tid_eqb_neq in Exi. right. split; [exact Exi|]. destruct (m x) as [tx|]; [|discriminate]. exists tx. split; [reflexivity|].
      unfold upd. destruct (tid_mem x Dp); inversion Ex; reflexivity. }
  assert (H2 : forall x tx, m x = Some tx -> x <> id /\ m' x = Some (upd x tx)).
  { intros x tx Ex. assert (Hne : x <> id) by (intros ->; congruence). split; [exact Hne|].
    rewrite E. unfold mupd, regm. apply tid_eqb_neq in Hne. rewrite Hne, Ex. unfold upd. destruct (tid_mem x Dp); reflexivity. }
  assert (Hst : forall x tx, t_id (upd x tx) = t_id tx /\ t_deps (upd x tx) = t_deps tx /\ t_state (upd x tx) = t_state tx).
  { intros x tx. unfold upd. destruct (tid_mem x Dp); repeat split. }
  assert (Hinm : forall d, inm m' d = if tid_eqb d id then true else inm m d).
  { intros d. unfold inm. rewrite E. unfold mupd, regm. destruct (tid_eqb d id); [reflexivity|].
    destruct (m d); [destruct (tid_mem d Dp); reflexivity | reflexivity]. }
  assert (Hkept : forall d, In d kept <-> In d Dp /\ inm m d = true) by (intros d; rewrite Hk; apply filter_In).
  assert (Hkid : ~ In id kept). { intros Hin. apply Hkept in Hin. destruct Hin as [_ Hin]. apply inm_true in Hin. destruct Hin as (x & Hx). congruence. }
  apply DI_make.
  - intros x tx' Ex. destruct (H1 _ _ Ex) as [[-> ->]|(Hne & tx & Etx & ->)]; [reflexivity|].
    destruct (Hst x tx) as (Hi & _). rewrite Hi. eapply dx_id; eassumption.
  - intros x tx' Ex. destruct (H1 _ _ Ex) as [[-> ->]|(Hne & tx & Etx & ->)]; [cbn; discriminate|].
    destruct (Hst x tx) as (_ & _ & Hs). rewrite Hs. eapply dx_nofin; eassumption.
  - intros x tx' Ex. destruct (H1 _ _ Ex) as [[-> ->]|(Hne & tx & Etx & ->)].
    + cbn. rewrite Hk. apply NoDup_filter'. exact Hnd.
    + destruct (Hst x tx) as (_ & Hd & _). rewrite Hd. eapply dx_nd; eassumption.
  - intros x tx' Ex. destruct (H1 _ _ Ex) as [[-> ->]|(Hne & tx & Etx & ->)].
    + cbn. fold (t_consumers t). rewrite Hnc. constructor.
    + pose proof (dx_nc _ _ D _ _ Etx) as Hn. unfold upd. destruct (tid_mem x Dp); [|exact Hn]. cbn.
      apply tid_insert_NoDup; [|exact Hn]. intros Hin. destruct (dx_cons _ _ D _ _ _ Etx Hin) as (ct & Ec & _). congruence.
  - intros x tx' Ex. destruct (H1 _ _ Ex) as [[-> ->]|(Hne & tx & Etx & ->)].
    + cbn [t1 t_state with_state]. f_equal. unfold dcount. cbn [t_deps with_state with_deps]. symmetry. apply flen_all.
      intros d Hd. rewrite Hinm. destruct (tid_eqb d id); [reflexivity|]. apply Hkept in Hd. apply Hd.
    + destruct (Hst x tx) as (_ & Hd & Hs). rewrite Hs.
      assert (Hsame : dcount m' (upd x tx) = dcount m tx).
      { unfold dcount. rewrite Hd. apply flen_ext. intros y Hy. rewrite Hinm. destruct (tid_eqb y id) eqn:Ey; [|reflexivity].
        apply tid_eqb_eq in Ey. subst y. exfalso. exact (Hnodep _ _ Etx Hy). }
      rewrite Hsame. eapply DI_cnt; eassumption.
  - intros x tx' y Ex Hy. destruct (H1 _ _ Ex) as [[-> ->]|(Hne & tx & Etx & ->)].
    + cbn in Hy. fold (t_consumers t) in Hy. rewrite Hnc in Hy. destruct Hy.
    + assert (Hcase : (y = id /\ tid_mem x Dp = true) \/ In y (t_consumers tx)).
      { unfold upd in Hy. destruct (tid_mem x Dp); [|right; exact Hy]. cbn in Hy.
        destruct (tid_insert_in _ _ _ Hy) as [->|Hy']; [left; auto | right; exact Hy']. }
      destruct Hcase as [[-> Hm]|Hy0].
      * exists t1. split; [exact Hnew|]. split; [reflexivity|]. cbn. apply Hkept. split; [apply tid_mem_In; exact Hm | apply inm_true; eauto].
      * destruct (dx_cons _ _ D _ _ _ Etx Hy0) as (cy & Ey & Wy & Iy). destruct (H2 _ _ Ey) as (Hyi & Ey').
        exists (upd y cy). split; [exact Ey'|]. destruct (Hst y cy) as (_ & Hd & Hs). rewrite Hd. split; [|exact Iy].
        unfold is_waiting in *. rewrite Hs. exact Wy.
  - intros x tx' d dt' Ex Hd Ed. destruct (H1 _ _ Ex) as [[-> ->]|(Hne & tx & Etx & ->)].
    + cbn in Hd. apply Hkept in Hd. destruct Hd as [HdD Hdi]. apply inm_true in Hdi. destruct Hdi as (dt & Edt).
      destruct (H2 _ _ Edt) as (Hdne & Ed'). rewrite Ed' in Ed. inversion Ed; subst dt'.
      unfold upd. apply tid_mem_In in HdD. rewrite HdD. cbn. apply tid_insert_has.
    + destruct (Hst x tx) as (_ & Hdx & _). rewrite Hdx in Hd.
      destruct (H1 _ _ Ed) as [[-> ->]|(Hdne & dt & Edt & ->)]; [exfalso; exact (Hnodep _ _ Etx Hd)|].
      pose proof (dx_deps _ _ D _ _ _ _ Etx Hd Edt) as Hin.
      unfold upd. destruct (tid_mem d Dp); [cbn; apply tid_insert_keeps; exact Hin | exact Hin].
Qed.
