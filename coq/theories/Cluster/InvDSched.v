(** C03, the dependency invariant, part 5: where the scheduler queues enter.

    [map_one] turns a task taken from a ready queue into [Assigned] without looking at its
    dependency counter, [prefill_mark] does the same for [Prefilled], [lost_prefilled] re-queues
    whatever is in the prefill set.  The local fact [QA] - every id in a ready entry or prefill set
    of the CURRENT queues carries no positive counter - follows from the queue invariant ([QSTMT],
    a premise about the state at the beginning of the operation) and is maintained because these
    functions only remove ids from the queues or move them from a ready entry to the prefill set,
    and only move task states between zero-counter states. *)
From HQ Require Import Base.Prelude Cluster.Types Cluster.Core Cluster.Reactor Cluster.Worker Cluster.Server Cluster.Sys Cluster.Monitors Cluster.ProofsJob Cluster.ProofsMore Cluster.ProofsTerminal Cluster.ProofsStep Cluster.BijBase Cluster.BijCore Cluster.BijHq Cluster.BijSt Cluster.BijReact Cluster.FrameGen Cluster.CrashFrame Cluster.InvQBase Cluster.InvDBase Cluster.InvDSpec Cluster.InvDRem Cluster.InvDReact.
From HQ Require Import Cluster.ModelFacts.
From Coq Require Import ZArith Lia Sorting.Sorted.
Local Open Scope N_scope.

Arguments N.add : simpl never.
Arguments N.sub : simpl never.

Definition inr (es : list qentry) (x : tid) : Prop := exists e, In e es /\ In x (qe_ids e).
Definition inp (pf : option (Z * list tid)) (x : tid) : Prop := exists pp ts, pf = Some (pp, ts) /\ In x ts.
Definition inq (q : queue) (x : tid) : Prop := inr (q_ready q) x \/ inp (q_prefill q) x.
Definition allql (qs : list queue) (x : tid) : Prop := exists rq q, nth_error qs rq = Some q /\ inq q x.
Definition allq (c : core) (x : tid) : Prop := allql (c_queues c) x.

Definition QA (c : core) : Prop := forall id t, allq c id -> fm c id = Some t -> z_old (t_state t).

Lemma in_ready_inr q x : in_ready q x = true <-> inr (q_ready q) x.
Proof.
  unfold in_ready, inr. rewrite existsb_exists. split; intros (e & He & Hx); exists e; (split; [exact He|]); apply tid_mem_In; exact Hx.
Qed.
Lemma in_prefill_inp q x : in_prefill q x = true <-> inp (q_prefill q) x.
Proof.
  unfold in_prefill, inp. destruct (q_prefill q) as [[pp ts]|].
  - rewrite tid_mem_In. split; [intros H; exists pp, ts; auto | intros (pp' & ts' & E & H); inversion E; subst; exact H].
  - split; [discriminate | intros (pp & ts & E & _); discriminate].
Qed.

(** The premise about the queues, in the form the queue invariant delivers it. *)
Definition QSTMT (c : core) : Prop :=
  (forall t, In t (c_tasks c) ->
     let q := queue_of c (t_rq t) in
     match t_state t with
     | Waiting n => in_ready q (t_id t) = N.eqb n 0 /\ in_prefill q (t_id t) = false
     | Prefilled _ => in_prefill q (t_id t) = true /\ in_ready q (t_id t) = false
     | Retracting _ => in_prefill q (t_id t) = false /\
                       (in_ready q (t_id t) = match find_redirect (c_redirects c) (t_id t) with Some _ => false | None => true end)
     | Assigned _ _ | Running _ _ | RunningMN _ => in_ready q (t_id t) = false /\ in_prefill q (t_id t) = false
     | Finished => False
     end) /\
  (forall rq q id, nth_error (c_queues c) rq = Some q -> (in_ready q id = true \/ in_prefill q id = true) ->
     exists t, find_task (c_tasks c) id = Some t /\ N.to_nat (t_rq t) = rq).

Lemma QSTMT_QA c : QSTMT c -> QA c.
Proof.
  intros [Q1 Q2] id t (rq & q & Hq & Hin) Ef.
  assert (Hb : in_ready q id = true \/ in_prefill q id = true).
  { destruct Hin as [H|H]; [left; apply in_ready_inr; exact H | right; apply in_prefill_inp; exact H]. }
  destruct (Q2 _ _ _ Hq Hb) as (t' & Ef' & Hrq). unfold fm in Ef. rewrite Ef in Ef'. inversion Ef'; subst t'.
  destruct (find_task_some _ _ _ Ef) as [Hint Hid].
  specialize (Q1 t Hint). cbv zeta in Q1. unfold queue_of in Q1. rewrite Hrq, Hq, Hid in Q1.
  destruct (t_state t); try exact I. cbn. destruct Q1 as [Q1 Q1'].
  destruct Hb as [Hb|Hb]; [|congruence]. rewrite Hb in Q1. symmetry in Q1. apply N.eqb_eq in Q1. exact Q1.
Qed.

Lemma QA_step c c' : QA c -> scr c c' -> (forall x, allq c' x -> allq c x) -> QA c'.
Proof.
  intros Q [_ S] Hsub id t' Ha Ef. destruct (SC_some' _ _ _ _ S Ef) as (t & Et & _ & St).
  eapply st_step_z_old; [exact St|]. eapply Q; [apply Hsub; exact Ha | exact Et].
Qed.

Lemma QA_tasks_queues c c' : c_tasks c' = c_tasks c -> c_queues c' = c_queues c -> QA c -> QA c'.
Proof. intros Et Eq Q id t Ha Ef. unfold allq in Ha. rewrite Eq in Ha. unfold fm in Ef. rewrite Et in Ef. eapply Q; eassumption. Qed.

Lemma allql_set qs i q q' x :
  nth_error qs i = Some q -> (forall y, inq q' y -> inq q y) -> allql (set_queue qs i q') x -> allql qs x.
Proof.
  intros Hq Hsub (rq & q0 & H0 & Hin). destruct (Nat.eq_dec i rq) as [<-|Hne].
  - rewrite (nth_set_queue_same _ _ _ _ Hq) in H0. inversion H0; subst q0. exists i, q. split; [exact Hq | apply Hsub; exact Hin].
  - rewrite (nth_set_queue_other _ _ _ _ Hne) in H0. exists rq, q0. split; assumption.
Qed.

Lemma take_from_first_sub es count a es' c' :
  take_from_first es count = Ok (a, es', c') ->
  (forall x, In x a -> inr es x) /\ (forall x, inr es' x -> inr es x).
Proof.
  unfold take_from_first. destruct es as [|e t]; [discriminate|].
  destruct (qe_more e).
  - destruct (take_n (N.to_nat count) (qe_ids e)) as [a0 b0] eqn:E. pose proof (take_n_app _ _ _ _ E) as Happ.
    intros H.
    assert (Ha : a = a0 /\ ((b0 = [] /\ es' = t) \/ es' = mkQE (qe_prio e) true b0 :: t)).
    { destruct b0; inversion H; subst; split; auto. }
    destruct Ha as [-> Hes]. split.
    + intros x Hx. exists e. split; [left; reflexivity | rewrite Happ; apply in_app_iff; left; exact Hx].
    + intros x (e0 & He0 & Hx). destruct Hes as [[_ ->]| ->]; [exists e0; split; [right; exact He0 | exact Hx]|].
      destruct He0 as [<-|He0]; [|exists e0; split; [right; exact He0 | exact Hx]].
      exists e. split; [left; reflexivity | rewrite Happ; apply in_app_iff; right; exact Hx].
  - destruct (N.eqb count 0); [discriminate|]. intros H. inversion H; subst. split.
    + intros x Hx. exists e. split; [left; reflexivity | exact Hx].
    + intros x (e0 & He0 & Hx). exists e0. split; [right; exact He0 | exact Hx].
Qed.

Lemma take_loop_sub fuel : forall es count acc ids es',
  take_loop fuel es count acc = Ok (ids, es') ->
  (forall x, In x ids -> In x acc \/ inr es x) /\ (forall x, inr es' x -> inr es x).
Proof.
  induction fuel as [|k IH]; intros es count acc ids es' H; cbn [take_loop] in H.
  - destruct (N.eqb count 0); [|discriminate]. inversion H; subst. split; auto.
  - destruct (N.eqb count 0); [inversion H; subst; split; auto|].
    apply bind_ok in H. destruct H as ([[a es1] c1] & H1 & H).
    destruct (take_from_first_sub _ _ _ _ _ H1) as [A1 A2]. destruct (IH _ _ _ _ _ H) as [B1 B2]. split.
    + intros x Hx. destruct (B1 x Hx) as [Hx'|Hx']; [|right; apply A2; exact Hx'].
      apply in_app_iff in Hx'. destruct Hx' as [Hx'|Hx']; [left; exact Hx' | right; apply A1; exact Hx'].
    + intros x Hx. apply A2, B2, Hx.
Qed.

Lemma fold_remove_sub a : forall (ts : list tid) x, In x (fold_left (fun acc y => tid_remove y acc) a ts) -> In x ts.
Proof.
  induction a as [|h t IH]; cbn [fold_left]; intros ts x H; [exact H|]. eapply tid_remove_sub. eapply IH. exact H.
Qed.

Lemma drain_prefill_sub pf order count a pf' c' :
  drain_prefill pf order count = Ok (a, pf', c') ->
  (forall x, In x a -> inp pf x) /\ (forall x, inp pf' x -> inp pf x).
Proof.
  unfold drain_prefill. destruct pf as [[pp ts]|].
  - destruct (negb (perm_of_set order ts)) eqn:Ep; [discriminate|]. apply negb_false_iff in Ep.
    destruct (take_n (N.to_nat count) order) as [a0 b0] eqn:E. pose proof (take_n_app _ _ _ _ E) as Happ.
    set (rest := fold_left (fun acc x => tid_remove x acc) a0 ts). intros H.
    assert (Ha : a = a0 /\ (pf' = None \/ pf' = Some (pp, rest))).
    { clearbody rest. destruct rest; inversion H; subst; split; auto. }
    destruct Ha as [-> Hpf]. split.
    + intros x Hx. exists pp, ts. split; [reflexivity|]. apply tid_mem_In. apply (perm_of_set_mem _ _ _ Ep). rewrite Happ. apply in_app_iff. left; exact Hx.
    + intros x (pp' & ts' & E' & Hx). destruct Hpf as [->| ->]; [discriminate|]. inversion E'; subst.
      exists pp', ts. split; [reflexivity|]. eapply fold_remove_sub. exact Hx.
  - intros H. inversion H; subst. split; [intros x [] | intros x (pp & ts & E & _); discriminate].
Qed.

Lemma q_take_tasks_sub q count order ids q' :
  q_take_tasks q count order = Ok (ids, q') -> (forall x, In x ids -> inq q x) /\ (forall x, inq q' x -> inq q x).
Proof.
  unfold q_take_tasks. destruct (q_prefill q) as [[pp ts0]|] eqn:Epf.
  - match goal with |- (if ?b then _ else _) = _ -> _ => destruct b end.
    + intros H. apply bind_ok in H. destruct H as ([[a es1] c1] & H1 & H).
      apply bind_ok in H. destruct H as ([[b pf] c2] & H2 & H). apply bind_ok in H. destruct H as ([c es2] & H3 & H). inversion H; subst.
      assert (A : (forall x, In x a -> inr (q_ready q) x) /\ (forall x, inr es1 x -> inr (q_ready q) x)).
      { destruct (N.ltb 0 count); [eapply take_from_first_sub; exact H1 | inversion H1; subst; split; [intros x [] | auto]]. }
      destruct A as [A1 A2]. destruct (drain_prefill_sub _ _ _ _ _ _ H2) as [B1 B2]. destruct (take_loop_sub _ _ _ _ _ _ H3) as [C1 C2].
      split.
      * intros x Hx. apply in_app_iff in Hx. destruct Hx as [Hx|Hx]; [left; apply A1; exact Hx|].
        apply in_app_iff in Hx. destruct Hx as [Hx|Hx]; [right; rewrite Epf; apply B1; exact Hx|].
        destruct (C1 x Hx) as [[]|Hx']. left. apply A2. exact Hx'.
      * intros x [Hx|Hx]; [left; apply A2, C2; exact Hx | right; rewrite Epf; apply B2; exact Hx].
    + intros H. apply bind_ok in H. destruct H as ([[b pf] c2] & H2 & H). apply bind_ok in H. destruct H as ([c es2] & H3 & H). inversion H; subst.
      destruct (drain_prefill_sub _ _ _ _ _ _ H2) as [B1 B2]. destruct (take_loop_sub _ _ _ _ _ _ H3) as [C1 C2].
      split.
      * intros x Hx. apply in_app_iff in Hx. destruct Hx as [Hx|Hx]; [right; rewrite Epf; apply B1; exact Hx|].
        destruct (C1 x Hx) as [[]|Hx']. left. exact Hx'.
      * intros x [Hx|Hx]; [left; apply C2; exact Hx | right; rewrite Epf; apply B2; exact Hx].
  - intros H. apply bind_ok in H. destruct H as ([ids0 es] & H3 & H). inversion H; subst.
    destruct (take_loop_sub _ _ _ _ _ _ H3) as [C1 C2]. split.
    + intros x Hx. destruct (C1 x Hx) as [[]|Hx']. left; exact Hx'.
    + intros x [Hx|Hx]; [left; apply C2; exact Hx | destruct Hx as (pp & ts & E & _); discriminate].
Qed.

Lemma q_take_one_sub q id q' : q_take_one q = Some (id, q') -> inq q id /\ (forall x, inq q' x -> inq q x).
Proof.
  unfold q_take_one. destruct (q_ready q) as [|e t] eqn:Er; [discriminate|].
  destruct (qe_ids e) as [|x0 rest] eqn:Ei; [discriminate|].
  intros H.
  assert (Hq : id = x0 /\ q_prefill q' = q_prefill q /\ (q_ready q' = t \/ q_ready q' = mkQE (qe_prio e) true rest :: t)).
  { destruct (qe_more e); [destruct rest|]; inversion H; subst; cbn; auto. }
  destruct Hq as (-> & Hp & Hr). split.
  - left. rewrite Er. exists e. split; [left; reflexivity | rewrite Ei; left; reflexivity].
  - intros x [Hx|Hx]; [|right; rewrite <- Hp; exact Hx]. left. rewrite Er. destruct Hx as (e0 & He0 & Hx0).
    destruct Hr as [Hr|Hr]; rewrite Hr in He0; [exists e0; split; [right; exact He0 | exact Hx0]|].
    destruct He0 as [<-|He0]; [exists e; split; [left; reflexivity | rewrite Ei; right; exact Hx0] | exists e0; split; [right; exact He0 | exact Hx0]].
Qed.

Lemma q_take_tasks_for_prefill_sub q count ids q' :
  q_take_tasks_for_prefill q count = Ok (ids, q') -> (forall x, In x ids -> inq q x) /\ (forall x, inq q' x -> inq q x).
Proof.
  unfold q_take_tasks_for_prefill. destruct (q_ready q) as [|e t] eqn:Er; [discriminate|]. intros H.
  apply bind_ok in H. destruct H as ([[ids0 es] c1] & H1 & H).
  destruct (take_from_first_sub _ _ _ _ _ H1) as [A1 A2]. rewrite <- Er in A1, A2.
  destruct (q_prefill q) as [[pp ts]|] eqn:Epf.
  - destruct (Z.eqb pp (qe_prio e)); [|discriminate]. inversion H; subst. split.
    + intros x Hx. left. apply A1. exact Hx.
    + intros x [Hx|(pp' & ts' & E & Hx)]; [left; apply A2; exact Hx|]. cbn in E. inversion E; subst.
      apply tid_insert_all_iff in Hx. destruct Hx as [Hx|Hx]; [left; apply A1; exact Hx | right; exists pp', ts; auto].
  - inversion H; subst. split.
    + intros x Hx. left. apply A1. exact Hx.
    + intros x [Hx|(pp' & ts' & E & Hx)]; [left; apply A2; exact Hx|]. cbn in E. inversion E; subst.
      apply tid_insert_all_iff in Hx. destruct Hx as [Hx|[]]. left; apply A1; exact Hx.
Qed.

Lemma qe_add_sub es id p x : inr (qe_add es id p) x -> x = id \/ inr es x.
Proof.
  induction es as [|e t IH]; cbn [qe_add].
  - intros (e0 & [<-|[]] & Hx). cbn in Hx. destruct Hx as [<-|[]]. left; reflexivity.
  - destruct (Z.eqb (qe_prio e) p).
    + intros (e0 & [<-|He0] & Hx).
      * cbn in Hx. destruct (tid_insert_in _ _ _ Hx) as [->|Hx']; [left; reflexivity | right; exists e; split; [left; reflexivity | exact Hx']].
      * right. exists e0. split; [right; exact He0 | exact Hx].
    + destruct (Z.ltb (qe_prio e) p).
      * intros (e0 & [<-|He0] & Hx); [cbn in Hx; destruct Hx as [<-|[]]; left; reflexivity | right; exists e0; split; assumption].
      * intros (e0 & [<-|He0] & Hx); [right; exists e; split; [left; reflexivity | exact Hx]|].
        destruct (IH (ex_intro _ e0 (conj He0 Hx))) as [->|(e1 & He1 & Hx1)]; [left; reflexivity | right; exists e1; split; [right; exact He1 | exact Hx1]].
Qed.

Lemma q_move_prefilled_to_ready_sub q id q' :
  q_move_prefilled_to_ready q id = Ok q' -> inq q id /\ (forall x, inq q' x -> inq q x).
Proof.
  unfold q_move_prefilled_to_ready. destruct (q_prefill q) as [[pp ts]|] eqn:Epf; [|discriminate].
  destruct (tid_mem id ts) eqn:Em; [|discriminate]. apply tid_mem_In in Em. intros H. inversion H; subst.
  assert (Hid : inq q id) by (right; rewrite Epf; exists pp, ts; auto).
  split; [exact Hid|]. intros x [Hx|Hx].
  - cbn in Hx. destruct (qe_add_sub _ _ _ _ Hx) as [->|Hx']; [exact Hid | left; exact Hx'].
  - cbn in Hx. destruct Hx as (pp' & ts' & E & Hx). right. rewrite Epf. exists pp, ts. split; [reflexivity|].
    destruct (tid_remove id ts) eqn:Er; [discriminate|]. inversion E; subst. rewrite <- Er in Hx. eapply tid_remove_sub. exact Hx.
Qed.

Lemma map_one_scr c m id w v rqres c' m' :
  (forall t, fm c id = Some t -> z_old (t_state t)) ->
  map_one c m id w v rqres = Ok (c', m') -> scr c c' /\ c_queues c' = c_queues c.
Proof.
  intros HZ H. unfold map_one in H.
  apply bind_ok in H. destruct H as (wk & _ & H). apply bind_ok in H. destruct H as (wk' & _ & H).
  apply bind_ok in H. destruct H as (t & Ht & H).
  assert (Hf : find_task (c_tasks c) id = Some t) by (apply get_task_find; exact Ht).
  pose proof (HZ t Hf) as Z.
  destruct (t_state t) eqn:Est; try discriminate.
  - inversion H; subst. split; [|reflexivity].
    eapply (scr_upd c c _ id t); [reflexivity | exact Hf | reflexivity | edges | right; split; [rewrite Est; exact Z | exact I]].
  - destruct (find_worker _ w0) as [wo|]; [|discriminate].
    apply bind_ok in H. destruct H as (wo' & _ & H).
    destruct (find_redirect _ id); [discriminate|]. inversion H; subst. split; [|reflexivity].
    eapply (scr_upd c c _ id t); [reflexivity | exact Hf | reflexivity | edges | ststep].
  - destruct (find_redirect _ id) as [[ot vo]|].
    + inv_binds H. inversion H; subst. split; [apply scr_tasks|]; reflexivity.
    + inversion H; subst. split; [apply scr_tasks|]; reflexivity.
Qed.

Definition zlist (c : core) (l : list tid) : Prop := forall id t, In id l -> fm c id = Some t -> z_old (t_state t).

Lemma zlist_scr c c' l : scr c c' -> zlist c l -> zlist c' l.
Proof.
  intros [_ S] Z id t' Hin E'. destruct (SC_some' _ _ _ _ S E') as (t & Et & _ & St).
  eapply st_step_z_old; [exact St | eapply Z; eassumption].
Qed.

Lemma rr_pass_scr counts : forall c m tasks v rqres c' m' counts' rest,
  zlist c tasks -> rr_pass c m counts tasks v rqres = Ok (c', m', counts', rest) ->
  scr c c' /\ c_queues c' = c_queues c /\ incl rest tasks.
Proof.
  induction counts as [|[w n] r IH]; intros c m tasks v rqres c' m' counts' rest Z H.
  - destruct tasks; cbn [rr_pass] in H; inversion H; subst; (split; [apply scr_refl | split; [reflexivity|]]); [intros x [] | apply incl_refl].
  - destruct tasks as [|id tl]; cbn [rr_pass] in H; [inversion H; subst; split; [apply scr_refl | split; [reflexivity | intros x []]]|].
    destruct (N.ltb 0 n).
    + apply bind_ok in H. destruct H as ([c1 m1] & H1 & H).
      apply bind_ok in H. destruct H as ([[[c2 m2] r'] tl'] & H2 & H). inversion H; subst.
      destruct (map_one_scr _ _ _ _ _ _ _ _ (fun t Ht => Z id t (or_introl eq_refl) Ht) H1) as [S1 Q1].
      assert (Z1 : zlist c1 tl) by (eapply zlist_scr; [exact S1|]; intros x t Hx; apply Z; right; exact Hx).
      destruct (IH _ _ _ _ _ _ _ _ _ Z1 H2) as (S2 & Q2 & I2).
      split; [eapply scr_trans; eassumption|]. split; [congruence | apply incl_tl; exact I2].
    + apply bind_ok in H. destruct H as ([[[c2 m2] r'] tl'] & H2 & H). inversion H; subst.
      eapply IH; eassumption.
Qed.

Lemma rr_loop_scr fuel : forall c m counts tasks v rqres c' m',
  zlist c tasks -> rr_loop fuel c m counts tasks v rqres = Ok (c', m') -> scr c c' /\ c_queues c' = c_queues c.
Proof.
  induction fuel as [|k IH]; intros c m counts tasks v rqres c' m' Z H; destruct tasks as [|id tl]; cbn [rr_loop] in H;
    try (inversion H; subst; split; [apply scr_refl | reflexivity]); try discriminate.
  apply bind_ok in H. destruct H as ([[[c1 m1] counts1] rest] & H1 & H).
  destruct (rr_pass_scr _ _ _ _ _ _ _ _ _ _ Z H1) as (S1 & Q1 & I1).
  assert (Z1 : zlist c1 rest) by (eapply zlist_scr; [exact S1|]; intros x t Hx; apply Z; apply I1; exact Hx).
  destruct (IH _ _ _ _ _ _ _ _ Z1 H) as [S2 Q2]. split; [eapply scr_trans; eassumption | congruence].
Qed.

Lemma map_sn_QA sol l : forall c m c' m', QA c -> map_sn c m sol l = Ok (c', m') -> scr c c' /\ QA c'.
Proof.
  induction l as [|[[rq v] counts] r IH]; cbn [map_sn]; intros c m c' m' Q H; [inversion H; subst; split; [apply scr_refl | exact Q]|].
  apply bind_ok in H. destruct H as (rqd & _ & H). apply bind_ok in H. destruct H as (q & Hq & H).
  apply bind_ok in H. destruct H as ([tasks q'] & Ht & H). apply bind_ok in H. destruct H as ([c2 m2] & H2 & H).
  apply nth_queue_ok in Hq. destruct (q_take_tasks_sub _ _ _ _ _ Ht) as [A1 A2].
  set (c1 := with_queues c (set_queue (c_queues c) (N.to_nat rq) q')) in *.
  assert (Z1 : zlist c1 tasks).
  { intros id t Hin Ef. eapply Q; [|exact Ef]. exists (N.to_nat rq), q. split; [exact Hq | apply A1; exact Hin]. }
  destruct (rr_loop_scr _ _ _ _ _ _ _ _ _ Z1 H2) as [S2 Q2].
  assert (S12 : scr c c2) by (eapply scr_trans; [apply (scr_tasks c c1); reflexivity | exact S2]).
  assert (QA2 : QA c2).
  { eapply QA_step; [exact Q | exact S12|]. intros x Hx. unfold allq in *. rewrite Q2 in Hx. eapply allql_set; [exact Hq | exact A2 | exact Hx]. }
  destruct (IH _ _ _ _ QA2 H) as [S3 Q3]. split; [eapply scr_trans; eassumption | exact Q3].
Qed.

Lemma set_mn_workers_same l : forall c id first c', set_mn_workers c id l first = Ok c' -> c_tasks c' = c_tasks c /\ c_queues c' = c_queues c.
Proof.
  induction l as [|w r IH]; cbn [set_mn_workers]; intros c id first c' H; [inversion H; subst; split; reflexivity|].
  apply bind_ok in H. destruct H as (wk & _ & H). apply bind_ok in H. destruct H as (wk' & _ & H).
  destruct (IH _ _ _ _ H) as [A B]. split; [rewrite A | rewrite B]; reflexivity.
Qed.

Lemma map_mn_sets_QA sets : forall c rq mn c' mn', QA c -> map_mn_sets c rq mn sets = Ok (c', mn') -> scr c c' /\ QA c'.
Proof.
  induction sets as [|ws r IH]; cbn [map_mn_sets]; intros c rq mn c' mn' Q H; [inversion H; subst; split; [apply scr_refl | exact Q]|].
  apply bind_ok in H. destruct H as (q & Hq & H). apply nth_queue_ok in Hq.
  destruct (q_take_one q) as [[id q']|] eqn:Et; [|discriminate]. destruct (q_take_one_sub _ _ _ Et) as [_ A2].
  apply bind_ok in H. destruct H as (c2 & H2 & H). apply bind_ok in H. destruct H as (t & Ht & H). apply get_task_find in Ht.
  destruct (t_state t) as [n| | | | | |] eqn:Est; try discriminate. destruct n; [|discriminate].
  destruct (set_mn_workers_same _ _ _ _ _ H2) as [T2 Q2]. cbn in T2, Q2.
  set (c3 := upd_task c2 (with_state t (RunningMN ws))) in *.
  assert (S3 : scr c c3).
  { eapply (scr_upd c c2 c3 id t); [exact T2 | rewrite <- T2; exact Ht | reflexivity | edges | ststep]. }
  assert (QA3 : QA c3).
  { eapply QA_step; [exact Q | exact S3|]. intros x Hx. unfold allq in *. change (c_queues c3) with (c_queues c2) in Hx. rewrite Q2 in Hx.
    eapply allql_set; [exact Hq | exact A2 | exact Hx]. }
  destruct (IH _ _ _ _ _ QA3 H) as [S4 Q4]. split; [eapply scr_trans; eassumption | exact Q4].
Qed.

Lemma map_mn_QA l : forall c mn c' mn', QA c -> map_mn c mn l = Ok (c', mn') -> scr c c' /\ QA c'.
Proof.
  induction l as [|[[rq v] sets] r IH]; cbn [map_mn]; intros c mn c' mn' Q H; [inversion H; subst; split; [apply scr_refl | exact Q]|].
  apply bind_ok in H. destruct H as ([c1 mn1] & H1 & H).
  destruct (map_mn_sets_QA _ _ _ _ _ _ Q H1) as [S1 Q1]. destruct (IH _ _ _ _ Q1 H) as [S2 Q2].
  split; [eapply scr_trans; eassumption | exact Q2].
Qed.

Lemma prefill_mark_scr l : forall c w c', zlist c l -> prefill_mark c w l = Ok c' -> scr c c' /\ c_queues c' = c_queues c.
Proof.
  induction l as [|id r IH]; cbn [prefill_mark]; intros c w c' Z H; [inversion H; subst; split; [apply scr_refl | reflexivity]|].
  apply bind_ok in H. destruct H as (t & Ht & H). apply get_task_find in Ht.
  destruct (negb (is_waiting t)) eqn:Ew; [discriminate|]. apply negb_false_iff in Ew.
  apply bind_ok in H. destruct H as (wk & _ & H). apply bind_ok in H. destruct H as (wk' & _ & H).
  set (c1 := upd_worker (upd_task c (with_state t (Prefilled w))) wk') in *.
  assert (S1 : scr c c1).
  { eapply (scr_upd c c c1 id t); [reflexivity | exact Ht | reflexivity | edges | right; split; [eapply Z; [left; reflexivity | exact Ht] | exact I]]. }
  assert (Z1 : zlist c1 r) by (eapply zlist_scr; [exact S1|]; intros x tx Hx; apply Z; right; exact Hx).
  destruct (IH _ _ _ Z1 H) as [S2 Q2]. split; [eapply scr_trans; eassumption | rewrite Q2; reflexivity].
Qed.

Lemma prefill_workers_QA ws : forall c m qi psize c' m', QA c -> prefill_workers c m qi psize ws = Ok (c', m') -> scr c c' /\ QA c'.
Proof.
  induction ws as [|w r IH]; cbn [prefill_workers]; intros c m qi psize c' m' Q H; [inversion H; subst; split; [apply scr_refl | exact Q]|].
  apply bind_ok in H. destruct H as (q & Hq & H). apply nth_queue_ok in Hq.
  apply bind_ok in H. destruct H as ([ids q'] & Ht & H). destruct (q_take_tasks_for_prefill_sub _ _ _ _ Ht) as [A1 A2].
  apply bind_ok in H. destruct H as (c2 & H2 & H).
  set (c1 := with_queues c (set_queue (c_queues c) qi q')) in *.
  assert (Z1 : zlist c1 ids).
  { intros id t Hin Ef. eapply Q; [|exact Ef]. exists qi, q. split; [exact Hq | apply A1; exact Hin]. }
  destruct (prefill_mark_scr _ _ _ _ Z1 H2) as [S2 Q2].
  assert (S12 : scr c c2) by (eapply scr_trans; [apply (scr_tasks c c1); reflexivity | exact S2]).
  assert (QA2 : QA c2).
  { eapply QA_step; [exact Q | exact S12|]. intros x Hx. unfold allq in *. rewrite Q2 in Hx. eapply allql_set; [exact Hq | exact A2 | exact Hx]. }
  destruct (IH _ _ _ _ _ _ QA2 H) as [S3 Q3]. split; [eapply scr_trans; eassumption | exact Q3].
Qed.

Lemma prefill_queues_QA n : forall c m worder qi top c' m',
  QA c -> prefill_queues c m worder qi n top = Ok (c', m') -> scr c c' /\ QA c'.
Proof.
  induction n as [|k IH]; cbn [prefill_queues]; intros c m worder qi top c' m' Q H; [inversion H; subst; split; [apply scr_refl | exact Q]|].
  apply bind_ok in H. destruct H as (q & _ & H).
  destruct (q_top_priority q) as [tp|]; [|eapply IH; eassumption].
  destruct (negb (Z.eqb tp top)); [eapply IH; eassumption|].
  destruct (N.eqb _ 0); [eapply IH; eassumption|].
  destruct (existsb _ (q_top_task_ids q)).
  - destruct (forallb _ (q_top_task_ids q)); [eapply IH; eassumption | discriminate].
  - match type of H with match ?ws with [] => _ | _ => _ end = _ => destruct ws eqn:Ews end; [eapply IH; eassumption|].
    destruct (N.eqb _ 0); [eapply IH; eassumption|].
    apply bind_ok in H. destruct H as ([c1 m1] & H1 & H).
    destruct (prefill_workers_QA _ _ _ _ _ _ _ Q H1) as [S1 Q1]. destruct (IH _ _ _ _ _ _ _ Q1 H) as [S2 Q2].
    split; [eapply scr_trans; eassumption | exact Q2].
Qed.

Lemma run_scheduling_scr s sol s' : QA (core_of s) -> run_scheduling s sol = Ok s' -> scr (core_of s) (core_of s').
Proof.
  unfold run_scheduling. intros Q H. destruct (negb (perm_of_set _ _)); [discriminate|].
  apply bind_ok in H. destruct H as ([c1 m1] & H1 & H).
  apply bind_ok in H. destruct H as ([c2 mn] & H2 & H).
  apply bind_ok in H. destruct H as ([c3 m3] & H3 & H).
  apply bind_ok in H. destruct H as (s1 & H4 & H).
  apply bind_ok in H. destruct H as (s2 & H5 & H). inversion H; subst.
  destruct (map_sn_QA _ _ _ _ _ _ Q H1) as [S1 Q1]. destruct (map_mn_QA _ _ _ _ _ Q1 H2) as [S2 Q2].
  assert (S3 : scr c2 c3).
  { destruct (queues_top_priority (c_queues c2)); [|inversion H3; subst; apply scr_refl].
    eapply prefill_queues_QA; [exact Q2 | exact H3]. }
  eapply scr_trans; [exact S1|]. eapply scr_trans; [exact S2|]. eapply scr_trans; [exact S3|].
  apply scr_tasks. cbn. rewrite (send_mn_core _ _ _ H5), (send_mapping_core _ _ _ H4). reflexivity.
Qed.

Lemma lost_prefilled_QA l : forall c c', QA c -> lost_prefilled c l = Ok c' -> scr c c' /\ QA c'.
Proof.
  induction l as [|id r IH]; cbn [lost_prefilled]; intros c c' Q H; [inversion H; subst; split; [apply scr_refl | exact Q]|].
  apply bind_ok in H. destruct H as (t & Ht & H). apply get_task_find in Ht.
  apply bind_ok in H. destruct H as (q & Hq & H). apply nth_queue_ok in Hq.
  apply bind_ok in H. destruct H as (q' & Hm & H). destruct (q_move_prefilled_to_ready_sub _ _ _ Hm) as [A1 A2].
  match type of H with lost_prefilled ?cc _ = _ => set (c1 := cc) in * end.
  assert (Z : z_old (t_state t)).
  { eapply Q; [|exact Ht]. exists (N.to_nat (t_rq t)), q. split; [exact Hq | exact A1]. }
  assert (S1 : scr c c1).
  { eapply (scr_upd c c c1 id t); [reflexivity | exact Ht | reflexivity | edges | right; split; [exact Z | reflexivity]]. }
  assert (Q1 : QA c1).
  { eapply QA_step; [exact Q | exact S1|]. intros x Hx. unfold allq in *. cbn in Hx. eapply allql_set; [exact Hq | exact A2 | exact Hx]. }
  destruct (IH _ _ Q1 H) as [S2 Q2]. split; [eapply scr_trans; eassumption | exact Q2].
Qed.

(** The premise about the worker sets (the conclusion of the worker-set invariant). *)
Definition WSTMT (c : core) : Prop := forallb (worker_sets_ok c) (c_workers c) = true.

Lemma WSTMT_assigned c w wk a p f : WSTMT c -> find_worker (c_workers c) w = Some wk -> w_assign wk = Sn a p f -> zlist c a.
Proof.
  intros HW Hf Ha id t Hin Ef. unfold WSTMT in HW. rewrite forallb_forall in HW.
  specialize (HW _ (proj1 (find_worker_some _ _ _ Hf))). unfold worker_sets_ok in HW. rewrite Ha in HW.
  apply andb_true_iff in HW. destruct HW as [HW _]. rewrite forallb_forall in HW. specialize (HW _ Hin).
  unfold fm in Ef. rewrite Ef in HW. destruct (t_state t); try discriminate; exact I.
Qed.

Lemma perm_of_set_sub order ts x : perm_of_set order ts = true -> In x order -> In x ts.
Proof. intros H Hx. apply tid_mem_In. eapply perm_of_set_mem; eassumption. Qed.

Lemma on_remove_worker_RL s w reason a p t s' :
  GD (core_of s) -> QA (core_of s) -> WSTMT (core_of s) ->
  on_remove_worker s w reason a p t = Ok s' -> RL (core_of s) (core_of s').
Proof.
  intros G Q HW H. unfold on_remove_worker in H.
  destruct (find_worker _ w) as [wk|] eqn:Efw; [|discriminate].
  apply bind_ok in H. destruct H as ([[c2 running] retracted] & Hr & H).
  set (c0 := with_workers (core_of s) (del_worker (c_workers (core_of s)) w)) in *.
  assert (S2 : scr (core_of s) c2).
  { destruct (w_assign wk) as [a0 p0 f0|mt root] eqn:Ea.
    - destruct (negb _) eqn:Eperm; [discriminate|]. apply negb_false_iff in Eperm. apply andb_true_iff in Eperm. destruct Eperm as [Pa Pp].
      apply bind_ok in Hr. destruct Hr as (c1 & Hp & Hr).
      assert (Q0 : QA c0) by (eapply QA_tasks_queues; [| |exact Q]; reflexivity).
      destruct (lost_prefilled_QA _ _ _ Q0 Hp) as [S1 _].
      assert (S01 : scr (core_of s) c1) by (eapply scr_trans; [apply (scr_tasks _ c0); reflexivity | exact S1]).
      eapply scr_trans; [exact S01|]. eapply lost_assigned_scr; [|exact Hr].
      eapply zlist_scr; [exact S01|]. intros id tk Hin Ef. eapply (WSTMT_assigned _ _ _ _ _ _ HW Efw Ea); [|exact Ef].
      eapply perm_of_set_sub; eassumption.
    - apply bind_ok in Hr. destruct Hr as (tk & Ht & Hr). apply get_task_find in Ht.
      destruct (t_state tk) eqn:Est; try discriminate. destruct ws as [|w0 rest]; [discriminate|].
      destruct (N.eqb w w0).
      + apply bind_ok in Hr. destruct Hr as (c1 & Hc1 & Hr). apply bind_ok in Hr. destruct Hr as ([qs ret] & _ & Hr).
        inversion Hr; subst.
        pose proof (reset_mn_all_tasks _ _ _ Hc1) as T1.
        eapply (scr_upd _ c1 _ mt tk); [exact T1 | exact Ht | reflexivity | edges | cbn; ststep].
      + inversion Hr; subst.
        eapply (scr_upd _ c0 _ mt tk); [reflexivity | exact Ht | reflexivity | edges | ststep]. }
  destruct (negb (perm_of_set t _)); [discriminate|].
  apply bind_ok in H. destruct H as (s3 & H3 & H). apply bind_ok in H. destruct H as (s4 & H4 & H).
  apply bind_ok in H. destruct H as (s6 & H6 & H). apply bind_ok in H. destruct H as (s7 & H7 & H). inversion H; subst.
  pose proof (lost_retracting_scr _ _ _ _ H3) as S3. cbn in S3.
  pose proof (process_retracted_scr _ _ _ H4) as S4.
  destruct (process_worker_lost_active _ _ _ _ _ H6) as [C6 _]. unfold core_same in C6. cbn in C6.
  assert (S6 : scr (core_of s) (core_of s6)).
  { rewrite C6. eapply scr_trans; [exact S2|]. eapply scr_trans; [exact S3 | exact S4]. }
  pose proof (RL_scr _ _ G S6) as R6.
  pose proof (lost_fail_running_RL _ _ _ _ (proj1 R6) H7) as R7.
  eapply RL_trans; [exact R6|]. eapply RL_trans; [exact R7|].
  apply RL_scr; [exact (proj1 R7) | apply scr_tasks; reflexivity].
Qed.
