(** C01, "start before finish" - definitions over the event stream and their list lemmas.

    [FAS outs]: every [EvFinished t] in the stream is preceded by an [EvStarted t ..] of the same
    task with no terminal event (finished / failed / canceled / aborted) naming [t] in between.
    The job layer emits no per-task event when a task goes back to waiting after a worker loss
    ([set_waiting_state] is silent; [process_worker_lost] only emits the per-worker [EvWLost w]), so
    the state invariant is "a task the job layer shows Running has a start after its last
    terminal event" ([IPs]).  [fas_check] is the executable version of [FAS].
    [WK] is what almost every piece of the server's execution satisfies - it emits no start and no
    worker loss, a finish is of a Running task, nobody becomes Running - and what both this invariant
    and the stronger one of StartFin2Base.v are preserved by. *)
From HQ Require Import Base.Prelude Cluster.Types Cluster.Core Cluster.Reactor Cluster.Worker Cluster.Server Cluster.Sys Cluster.Monitors Cluster.ProofsJob Cluster.ProofsMore Cluster.ProofsTerminal Cluster.ProofsStep Cluster.ProofsFinal Cluster.BijBase Cluster.BijHq Cluster.ProofsOnce.
From HQ Require Import Cluster.ModelFacts.
From Coq Require Import ZArith Lia.
Local Open Scope N_scope.

(** [live outs t]: the stream contains a start of [t] after which no terminal event names [t]. *)
Definition live (outs : list out) (t : tid) : Prop :=
  exists a i ws rv b, outs = a ++ OEv (EvStarted t i ws rv) :: b /\ ~ In t (terminal_ids b).

(** Start before finish. *)
Definition FAS (outs : list out) : Prop :=
  forall pre t post, outs = pre ++ OEv (EvFinished t) :: post -> live pre t.

Lemma live_app l e t : live l t -> ~ In t (terminal_ids e) -> live (l ++ e) t.
Proof.
  intros (a & i & ws & rv & b & E & Hn) He. exists a, i, ws, rv, (b ++ e). split.
  - rewrite E, <- app_assoc. reflexivity.
  - rewrite terminal_ids_app. intros Hin. apply in_app_or in Hin. destruct Hin as [Hin|Hin]; [exact (Hn Hin) | exact (He Hin)].
Qed.

Lemma live_start l t i ws rv : live (l ++ [OEv (EvStarted t i ws rv)]) t.
Proof. exists l, i, ws, rv, []. split; [reflexivity | intros []]. Qed.

Lemma live_cons o l t : live l t -> live (o :: l) t.
Proof.
  intros (a & i & ws & rv & b & E & Hn). exists (o :: a), i, ws, rv, b. split; [rewrite E; reflexivity | exact Hn].
Qed.

Lemma live_nil t : ~ live [] t.
Proof. intros (a & i & ws & rv & b & E & _). destruct a; discriminate. Qed.

Lemma FAS_nil : FAS [].
Proof. intros pre t post E. destruct pre; discriminate. Qed.

Lemma list_last_case {A} (l : list A) : l = [] \/ exists l' x, l = l' ++ [x].
Proof. induction l as [|x l' _] using rev_ind; [left; reflexivity | right; eauto]. Qed.

Lemma tids_one o : terminal_ids [o] = tids_of o.
Proof. unfold terminal_ids. cbn [flat_map]. apply app_nil_r. Qed.

Lemma app_decomp {A} (l1 l2 pre : list A) x post :
  l1 ++ l2 = pre ++ x :: post ->
  (exists m, l1 = pre ++ x :: m /\ post = m ++ l2) \/ (exists m, pre = l1 ++ m /\ l2 = m ++ x :: post).
Proof.
  revert pre. induction l1 as [|a r IH]; intros pre E.
  - right. exists pre. split; [reflexivity | exact E].
  - destruct pre as [|p pre']; cbn [app] in E; inversion E; subst.
    + left. exists r. split; reflexivity.
    + destruct (IH _ H1) as [(m & E1 & E2)|(m & E1 & E2)].
      * left. exists m. split; [rewrite E1; reflexivity | exact E2].
      * right. exists m. split; [rewrite E1; reflexivity | exact E2].
Qed.

(** A property [P] of every finish and the stream before it, over an appended stretch: used for
    [FAS] (P = [live]) and for [FAS2c] of StartFin2Base.v. *)
Lemma fin_app (P : list out -> tid -> Prop) l e :
  (forall pre t post, l = pre ++ OEv (EvFinished t) :: post -> P pre t) ->
  (forall p t q, e = p ++ OEv (EvFinished t) :: q -> P (l ++ p) t) ->
  forall pre t post, l ++ e = pre ++ OEv (EvFinished t) :: post -> P pre t.
Proof.
  intros Hl He pre t post E. destruct (app_decomp _ _ _ _ _ E) as [(m & El & _)|(m & Ep & Ee)].
  - exact (Hl pre t m El).
  - rewrite Ep. exact (He m t post Ee).
Qed.

Lemma fin_one o p t q : [o] = p ++ OEv (EvFinished t) :: q -> o = OEv (EvFinished t) /\ p = [].
Proof. destruct p as [|y p']; [intros E; inversion E; split; reflexivity | destruct p'; discriminate]. Qed.

(** The invariant over (job layer, stream) and the relation every piece of the server's
    execution establishes.  The stream of a step starts empty and [run] concatenates, hence the
    quantification over the part [pre] emitted before. *)
Definition IPs (s : st) (pre : list out) : Prop :=
  FAS (pre ++ snd s) /\ forall t, task_state s t = Some JR -> live (pre ++ snd s) t.

Definition SF (s s' : st) : Prop := forall pre, IPs s pre -> IPs s' pre.

Lemma SF_refl s : SF s s.
Proof. intros pre H. exact H. Qed.

Lemma SF_trans s1 s2 s3 : SF s1 s2 -> SF s2 s3 -> SF s1 s3.
Proof. intros A B pre H. exact (B pre (A pre H)). Qed.

Definition nojr (s s' : st) : Prop := forall t, task_state s' t = Some JR -> task_state s t = Some JR.

Lemma task_state_same s s' t : hq_of s' = hq_of s -> task_state s' t = task_state s t.
Proof. intros E. unfold task_state. rewrite E. reflexivity. Qed.

Lemma nojr_same s s' : hq_of s' = hq_of s -> nojr s s'.
Proof. intros E t H. rewrite (task_state_same _ _ _ E) in H. exact H. Qed.

Lemma SF_emit1 s s' o :
  snd s' = snd s ++ [o] ->
  (forall t, o = OEv (EvFinished t) -> task_state s t = Some JR) ->
  (forall t, task_state s' t = Some JR ->
     (task_state s t = Some JR /\ ~ In t (tids_of o)) \/ exists i ws rv, o = OEv (EvStarted t i ws rv)) ->
  SF s s'.
Proof.
  intros E Hfin Hjr pre [HF HL]. unfold IPs. rewrite E, app_assoc. split.
  - refine (fin_app live _ _ HF _). intros p t q Ep. destruct (fin_one _ _ _ _ Ep) as [Eo ->].
    rewrite app_nil_r. apply HL. apply Hfin. exact Eo.
  - intros t Ht. destruct (Hjr t Ht) as [[H1 H2]|(i & ws & rv & Eo)].
    + apply live_app; [apply HL; exact H1 | rewrite tids_one; exact H2].
    + subst o. apply live_start.
Qed.

Definition calm (o : out) : bool :=
  match o with OEv (EvStarted _ _ _ _) | OEv (EvWLost _ _) => false | _ => true end.

(** [WK s s']: the stream grew by [ext], in which a finish is of a task Running in [s] that [ext]
    has not named before, and a task Running in [s'] was Running in [s] and is not named by [ext].
    Closed under composition ([WK_trans]), which the one-output form of [SF_emit1] is not. *)
Definition WK (s s' : st) : Prop :=
  exists ext, snd s' = snd s ++ ext /\ forallb calm ext = true /\
    (forall p t q, ext = p ++ OEv (EvFinished t) :: q -> task_state s t = Some JR /\ ~ In t (terminal_ids p)) /\
    (forall x, task_state s' x = Some JR -> task_state s x = Some JR /\ ~ In x (terminal_ids ext)).

Lemma WK_SF s s' : WK s s' -> SF s s'.
Proof.
  intros (ext & E & _ & Hf & Hj) pre [HF HL]. unfold IPs. rewrite E, app_assoc. split.
  - refine (fin_app live _ _ HF _). intros p t q Ep. destruct (Hf p t q Ep) as [Ht Hn].
    apply live_app; [apply HL; exact Ht | exact Hn].
  - intros x Hx. destruct (Hj x Hx) as [H1 H2]. apply live_app; [apply HL; exact H1 | exact H2].
Qed.

Lemma WK_quiet s s' : snd s' = snd s -> nojr s s' -> WK s s'.
Proof.
  intros E Hn. exists []. split; [rewrite app_nil_r; exact E|]. split; [reflexivity|]. split.
  - intros p t q Ep. destruct p; discriminate.
  - intros x Hx. split; [apply Hn; exact Hx | intros []].
Qed.

Lemma WK_refl s : WK s s.
Proof. apply WK_quiet; [reflexivity | intros t H; exact H]. Qed.

Lemma WK_core s s' : hq_of s' = hq_of s -> snd s' = snd s -> WK s s'.
Proof. intros Hq Hs. apply WK_quiet; [exact Hs | apply nojr_same; exact Hq]. Qed.

Lemma WK_trans s1 s2 s3 : WK s1 s2 -> WK s2 s3 -> WK s1 s3.
Proof.
  intros (e1 & E1 & C1 & F1 & J1) (e2 & E2 & C2 & F2 & J2). exists (e1 ++ e2).
  split; [rewrite E2, E1, app_assoc; reflexivity|]. split; [rewrite forallb_app, C1, C2; reflexivity|]. split.
  - intros p t q E. destruct (app_decomp _ _ _ _ _ E) as [(m & Em & _)|(m & Ep & Em)]; [exact (F1 p t m Em)|].
    destruct (F2 m t q Em) as [Ht Hn]. destruct (J1 t Ht) as [Ht1 Hn1]. split; [exact Ht1|].
    rewrite Ep, terminal_ids_app. intros Hin. apply in_app_or in Hin. destruct Hin; contradiction.
  - intros x Hx. destruct (J2 x Hx) as [H2 N2]. destruct (J1 x H2) as [H1 N1]. split; [exact H1|].
    rewrite terminal_ids_app. intros Hin. apply in_app_or in Hin. destruct Hin; contradiction.
Qed.

Lemma WK_emit1 s s' o :
  snd s' = snd s ++ [o] -> calm o = true ->
  (forall t, o = OEv (EvFinished t) -> task_state s t = Some JR) ->
  (forall x, task_state s' x = Some JR -> task_state s x = Some JR /\ ~ In x (tids_of o)) ->
  WK s s'.
Proof.
  intros E Hc Hfin Hjr. exists [o]. split; [exact E|]. split; [cbn [forallb]; rewrite Hc; reflexivity|]. split.
  - intros p t q Ep. destruct (fin_one _ _ _ _ Ep) as [Eo ->]. split; [apply Hfin; exact Eo | intros []].
  - intros x Hx. rewrite tids_one. exact (Hjr x Hx).
Qed.

Lemma WK_ext s s' ext :
  snd s' = snd s ++ ext -> terminal_ids ext = [] -> forallb calm ext = true -> nojr s s' -> WK s s'.
Proof.
  intros E Ht Hc Hn. exists ext. split; [exact E|]. split; [exact Hc|]. split.
  - intros p t q Ep. exfalso. rewrite Ep, terminal_ids_app, tids_cons in Ht. apply app_eq_nil in Ht. destruct Ht as [_ Ht]. discriminate Ht.
  - intros x Hx. split; [apply Hn; exact Hx | rewrite Ht; intros []].
Qed.

Lemma WK_emit_quiet s o : tids_of o = [] -> calm o = true -> WK s (emit s o).
Proof.
  intros Ho Hc. apply (WK_ext s (emit s o) [o]); [reflexivity | rewrite tids_one; exact Ho | cbn [forallb]; rewrite Hc; reflexivity|].
  apply nojr_same. apply emit_hq.
Qed.

Lemma TS_set s j' x :
  task_state (hq_set_job s j') x = if N.eqb (fst x) (j_id j') then jt_find (j_tasks j') (snd x) else task_state s x.
Proof.
  unfold task_state, hq_of, hq_set_job. cbn. rewrite find_job_set. destruct (N.eqb (fst x) (j_id j')); reflexivity.
Qed.

Lemma TS_find s jid j x : find_job (h_jobs (hq_of s)) jid = Some j -> fst x = jid -> task_state s x = jt_find (j_tasks j) (snd x).
Proof. intros Hf E. unfold task_state. rewrite E, Hf. reflexivity. Qed.

Lemma TS_set_one s site t j j' v x :
  hq_get_job s (fst t) site = Ok j -> j_id j' = j_id j -> j_tasks j' = jt_set (j_tasks j) (snd t) v ->
  task_state (hq_set_job s j') x = if tid_eqb x t then Some v else task_state s x.
Proof.
  intros Hj Hid Ht. destruct (hq_get_job_find _ _ _ _ Hj) as [Hf Eid]. rewrite TS_set, Hid, Eid. unfold tid_eqb.
  destruct (N.eqb (fst x) (fst t)) eqn:E; [|reflexivity]. apply N.eqb_eq in E. cbn [andb].
  rewrite Ht, jt_find_set. destruct (N.eqb (snd x) (snd t)); [reflexivity|]. symmetry. apply (TS_find s (fst t) j x Hf E).
Qed.

Lemma process_task_started_jr s t i ws rv s' :
  process_task_started s t i ws rv = Ok s' ->
  snd s' = snd s ++ [OEv (EvStarted t i ws rv)] /\ core_of s' = core_of s /\
  forall x, task_state s' x = Some JR -> x = t \/ task_state s x = Some JR.
Proof.
  intros H. unfold process_task_started in H. apply bind_ok in H. destruct H as (j & Hj & H).
  destruct (jt_find (j_tasks j) (snd t)) as [v|] eqn:Ef; [|discriminate]. inversion H; subst. clear H.
  split; [reflexivity|]. split; [reflexivity|]. intros x Hx.
  destruct (tid_eqb x t) eqn:Ext; [left; apply tid_eqb_eq; exact Ext|]. right.
  change (task_state (emit ?a ?o) x) with (task_state a x) in Hx.
  destruct (hq_get_job_find _ _ _ _ Hj) as [Hf Eid].
  destruct v.
  1: { rewrite (TS_set_one s 208 t j _ JR x Hj) in Hx by reflexivity. rewrite Ext in Hx. exact Hx. }
  all: rewrite TS_set, Eid in Hx; destruct (N.eqb (fst x) (fst t)) eqn:E; [|exact Hx];
    apply N.eqb_eq in E; rewrite (TS_find s (fst t) j x Hf E); exact Hx.
Qed.

Definition start_of (o : out) : option tid :=
  match o with OEv (EvStarted t _ _ _) => Some t | _ => None end.
Definition fin_of (o : out) : option tid :=
  match o with OEv (EvFinished t) => Some t | _ => None end.

(** [lv] = the tasks with a start after their last terminal event so far. *)
Fixpoint fas_go (lv : list tid) (outs : list out) : bool :=
  match outs with
  | [] => true
  | o :: r =>
      match fin_of o with Some t => tid_mem t lv | None => true end
      && fas_go (match start_of o with Some t => [t] | None => [] end
                 ++ filter (fun x => negb (tid_mem x (tids_of o))) lv) r
  end.
Definition fas_check (outs : list out) : bool := fas_go [] outs.

Lemma start_of_spec o t : start_of o = Some t <-> exists i ws rv, o = OEv (EvStarted t i ws rv).
Proof.
  split.
  - destruct o as [e| | | | | |]; try discriminate. destruct e; try discriminate. cbn. intros H. inversion H; subst. eauto.
  - intros (i & ws & rv & ->). reflexivity.
Qed.

Lemma start_of_tids o t : start_of o = Some t -> tids_of o = [].
Proof. intros H. apply start_of_spec in H. destruct H as (i & ws & rv & ->). reflexivity. Qed.

Lemma fin_of_spec o t : fin_of o = Some t <-> o = OEv (EvFinished t).
Proof.
  split.
  - destruct o as [e| | | | | |]; try discriminate. destruct e; try discriminate. cbn. intros H. inversion H; subst. reflexivity.
  - intros ->. reflexivity.
Qed.

Definition FASg (lv : list tid) (outs : list out) : Prop :=
  forall pre t post, outs = pre ++ OEv (EvFinished t) :: post ->
    live pre t \/ (In t lv /\ ~ In t (terminal_ids pre)).

Lemma fas_go_spec outs : forall lv, fas_go lv outs = true <-> FASg lv outs.
Proof.
  induction outs as [|o r IH]; intros lv; cbn [fas_go].
  - split; [intros _ pre t post E; destruct pre; discriminate | reflexivity].
  - rewrite andb_true_iff, IH. split.
    + intros [Hfin Hrest] pre t post E. destruct pre as [|o' pre'].
      * cbn [app] in E. inversion E; subst o. cbn [fin_of] in Hfin. right. split; [apply tid_mem_In; exact Hfin | intros []].
      * cbn [app] in E. inversion E; subst o' r.
        destruct (Hrest pre' t post eq_refl) as [HL|[Hin Hn]]; [left; apply live_cons; exact HL|].
        apply in_app_or in Hin. destruct Hin as [Hin|Hin].
        -- destruct (start_of o) as [t0|] eqn:Es; [|destruct Hin]. destruct Hin as [<-|[]].
           apply start_of_spec in Es. destruct Es as (i & ws & rv & ->).
           left. exists [], i, ws, rv, pre'. split; [reflexivity | exact Hn].
        -- apply filter_In in Hin. destruct Hin as [Hin Hm]. right. split; [exact Hin|].
           rewrite tids_cons. intros Hx. apply in_app_or in Hx. destruct Hx as [Hx|Hx]; [|exact (Hn Hx)].
           apply tid_mem_In in Hx. rewrite Hx in Hm. discriminate.
    + intros H. split.
      * destruct (fin_of o) as [t|] eqn:Ef; [|reflexivity]. apply fin_of_spec in Ef. subst o.
        destruct (H [] t r eq_refl) as [HL|[Hin _]]; [exfalso; exact (live_nil _ HL) | apply tid_mem_In; exact Hin].
      * intros pre t post E. subst r.
        destruct (H (o :: pre) t post eq_refl) as [(a & i & ws & rv & b & Ea & Hn)|[Hin Hn]].
        -- destruct a as [|o' a'].
           ++ cbn [app] in Ea. inversion Ea; subst o b. right. split; [left; reflexivity | exact Hn].
           ++ cbn [app] in Ea. inversion Ea; subst o' pre. left. exists a', i, ws, rv, b. split; [reflexivity | exact Hn].
        -- right. rewrite tids_cons in Hn. split; [|intros Hx; apply Hn; apply in_or_app; right; exact Hx].
           apply in_or_app. right. apply filter_In. split; [exact Hin|].
           destruct (tid_mem t (tids_of o)) eqn:Em; [|reflexivity].
           exfalso. apply Hn. apply in_or_app. left. apply tid_mem_In. exact Em.
Qed.

Theorem fas_check_spec outs : fas_check outs = true <-> FAS outs.
Proof.
  unfold fas_check. rewrite fas_go_spec. unfold FASg, FAS. split.
  - intros H pre t post E. destruct (H pre t post E) as [HL|[[] _]]. exact HL.
  - intros H pre t post E. left. exact (H pre t post E).
Qed.
