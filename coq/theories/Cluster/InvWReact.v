(** Worker-set invariant, part 4: the reactor's functions (reactor.rs). *)
From HQ Require Import Base.Prelude Cluster.Types Cluster.Core Cluster.Reactor Cluster.Worker Cluster.Server Cluster.Sys Cluster.ProofsJob Cluster.ProofsMore Cluster.ProofsTerminal Cluster.ProofsStep Cluster.BijBase Cluster.BijCore Cluster.BijHq Cluster.BijSt Cluster.BijReact Cluster.InvWBase Cluster.InvWView Cluster.InvWCore.
From HQ Require Import Cluster.ModelFacts.
From HQ Require Import Cluster.ReactSplit.
From Coq Require Import ZArith Lia Sorting.Sorted.
Local Open Scope N_scope.

Arguments N.add : simpl never.
Arguments N.sub : simpl never.

(** Side conditions on hidden sets. *)
Ltac xs := intros; unfold x0, xadd, xdel; rewrite ?tid_eqb_refl;
  repeat match goal with |- context [tid_eqb ?a ?b] => destruct (tid_eqb a b) end;
  repeat match goal with |- context [?X ?i] => is_var X; is_var i; destruct (X i) end; reflexivity.

Lemma WIX_sw X c : WIX X c -> wsorted (c_workers c). Proof. intros H; apply H. Qed.
Lemma WIX_sr X c : WIX X c -> rsorted (c_redirects c). Proof. intros H; apply H. Qed.

Lemma retract_states_WI ids : forall c acc c' acc', WI c -> retract_states c ids acc = Ok (c', acc') -> WI c'.
Proof.
  induction ids as [|id r IH]; cbn [retract_states]; intros c acc c' acc' HW H; [inversion H; subst; exact HW|].
  apply bind_ok in H. destruct H as (t & Ht & H). apply get_task_find in Ht.
  destruct (t_state t) eqn:Est; try discriminate.
  apply bind_ok in H. destruct H as (wk & Hw & H). apply get_worker_find in Hw.
  apply bind_ok in H. destruct H as (wk' & Hrm & H).
  destruct (find_task_some _ _ _ Ht) as [_ Hid].
  eapply IH; [|exact H].
  assert (Hp : pl (t_state t) = PP w) by (rewrite Est; reflexivity).
  pose proof (C_relP x0 c HW id t w wk wk' eq_refl Ht Hp Hw Hrm) as H1.
  exact (C_show _ _ H1 x0 id (with_state t (Retracting w)) ltac:(xs) ltac:(xs) Hid (or_intror eq_refl)).
Qed.

Lemma process_retracted_WI s r s' : WI (core_of s) -> process_retracted s r = Ok s' -> WI (core_of s').
Proof.
  unfold process_retracted. intros HW H. destruct r; [inversion H; subst; exact HW|].
  apply bind_ok in H. destruct H as ([c' groups] & H1 & H). rewrite (send_all_core _ _ _ H).
  eapply retract_states_WI; [exact HW | exact H1].
Qed.

Lemma try_remove_redirection_WIX X c t c' : WIX X c -> try_remove_redirection c t = Ok c' ->
  WIX X c' /\ c_tasks c' = c_tasks c /\ find_redirect (c_redirects c') (t_id t) = None.
Proof.
  intros HW H. unfold try_remove_redirection in H.
  destruct (find_redirect (c_redirects c) (t_id t)) as [[w rv]|] eqn:Er.
  - apply bind_ok in H. destruct H as (wk & Hw & H). apply get_worker_find in Hw.
    apply bind_ok in H. destruct H as (rq & _ & H). apply bind_ok in H. destruct H as (wk' & Hrm & H). inversion H; subst.
    split; [eapply C_relR; eassumption|]. split; [reflexivity|].
    cbn [c_redirects upd_worker with_workers with_redirects]. rewrite find_del_redirect by exact (WIX_sr _ _ HW).
    rewrite tid_eqb_refl. reflexivity.
  - inv_binds H. inversion H; subst. split; [exact HW|]. split; [reflexivity | exact Er].
Qed.

Lemma released_WIX X c id rq t c1 : WIX X c -> X id = false -> find_task (c_tasks c) id = Some t -> released c id rq t c1 ->
  WIX (xadd X id) c1 /\ c_tasks c1 = c_tasks c.
Proof.
  intros HW Ex Ef Hrel. destruct (find_task_some _ _ _ Ef) as [_ Hid].
  assert (Hmn : forall ws c', t_state t = RunningMN ws -> reset_mn_all c ws = Ok c' -> WIX (xadd X id) c' /\ c_tasks c' = c_tasks c).
  { intros ws c' Hs H1. split; [|exact (proj1 (reset_mn_all_spec _ _ _ H1))].
    eapply (C_relM_reset X c id t ws c ws c'); [exact HW | exact Ex | exact Ef | rewrite Hs; reflexivity | reflexivity | reflexivity | reflexivity
      | exact (WIX_sw _ _ HW) | auto | auto | auto | auto | exact H1]. }
  destruct Hrel as [Hs | w wk wk' Hs Hw Hrm | w q q' wk wk' Hs Hq Hq' Hw Hrm | w c2 Hs H1 | ws c2 Hs H1 | ws c2 Hs H1].
  - split; [|reflexivity]. eapply C_hide; [exact HW | exact Ef | left]. destruct (t_state t); try contradiction; reflexivity.
  - split; [|reflexivity]. apply get_worker_find in Hw. eapply C_relA; [exact HW | exact Ex | exact Ef | | exact Hw | exact Hrm].
    destruct (t_state t); try contradiction; subst; reflexivity.
  - split; [|reflexivity]. apply get_worker_find in Hw. refine (WIX_frame _ (upd_worker c wk') _ eq_refl eq_refl eq_refl eq_refl _).
    eapply C_relP; [exact HW | exact Ex | exact Ef | rewrite Hs; reflexivity | exact Hw | exact Hrm].
  - destruct (try_remove_redirection_WIX _ _ _ _ HW H1) as (W1 & T1 & R1). split; [|exact T1].
    eapply C_hide; [exact W1 | rewrite T1; exact Ef | right; split; [rewrite Hs; reflexivity | rewrite <- Hid; exact R1]].
  - exact (Hmn _ _ Hs H1).
  - exact (Hmn _ _ Hs (reset_mn_workers_all _ _ _ _ H1)).
Qed.

Lemma cancel_release_WIX ids : forall s tu ru X s' tu' ru',
  WIX X (core_of s) -> NoDup ids -> (forall i, In i ids -> X i = false) ->
  cancel_release s ids tu ru = Ok (s', tu', ru') ->
  WIX (fun i => tid_mem i ids || X i) (core_of s').
Proof.
  induction ids as [|id r IH]; intros s tu ru X s' tu' ru' HW Hnd HX H.
  - cbn [cancel_release] in H. inversion H; subst. eapply WIX_extX; [|exact HW]. intros i. reflexivity.
  - inversion Hnd as [|? ? Hni Hnd']; subst.
    assert (Ex : X id = false) by (apply HX; left; reflexivity).
    assert (Hgen : forall s1 tu1 ru1, WIX (xadd X id) (core_of s1) -> cancel_release s1 r tu1 ru1 = Ok (s', tu', ru') ->
              WIX (fun i => tid_mem i (id :: r) || X i) (core_of s')).
    { intros s1 tu1 ru1 H1 Hc. eapply WIX_extX; [|eapply (IH s1 tu1 ru1 (xadd X id)); [exact H1 | exact Hnd' | | exact Hc]].
      - intros i. cbn [tid_mem]. unfold xadd. destruct (tid_eqb i id), (tid_mem i r), (X i); reflexivity.
      - intros i Hi. unfold xadd. rewrite (HX i (or_intror Hi)).
        destruct (tid_eqb i id) eqn:E; [|reflexivity]. apply tid_eqb_eq in E. subst i. contradiction. }
    destruct (cancel_release_step _ _ _ _ _ _ H) as [[Ef H1] | (t & rq & c1 & s1 & tu1 & ru1 & Ef & _ & _ & Hrel & E & H1)];
      (eapply Hgen; [|exact H1]).
    + eapply C_hide_none; [exact HW | exact Ef].
    + pose proof (proj1 (released_WIX _ _ _ _ _ _ HW Ex Ef Hrel)) as W1. destruct E as [-> | ->]; exact W1.
Qed.

Lemma remove_tasks_batched_WIX X l : forall c c', WIX X c -> CS c -> (forall i, In i l -> present (keys c) i -> X i = true) ->
  remove_tasks_batched c l = Ok c' -> WIX X c'.
Proof.
  induction l as [|id r IH]; cbn [remove_tasks_batched]; intros c c' HW Hs HX H; [inversion H; subst; exact HW|].
  apply bind_ok in H. destruct H as ([c1 stt] & H1 & H).
  destruct (remove_task_shrinks _ _ _ _ Hs H1) as [Sh P].
  eapply IH; [eapply remove_task_WIX; [exact HW | exact Hs | exact H1 | left; apply HX; [left; reflexivity | exact P]] | exact (shr_sorted _ _ _ Sh) | | exact H].
  intros i Hi Hp. apply HX; [right; exact Hi | apply (shr_dom _ _ _ Sh) in Hp; apply Hp].
Qed.

Definition closed_ids (s : st) (ids : list tid) : Prop :=
  forall x y, In y ids -> present (K s) x -> fst x = fst y -> In x ids.

Lemma on_cancel_tasks_WI s ids s' :
  WI (core_of s) -> CS (core_of s) -> KD (K s) -> NoDup ids -> closed_ids s ids ->
  on_cancel_tasks s ids = Ok s' -> WI (core_of s').
Proof.
  intros HW Hs Hd Hnd Hcl H. unfold on_cancel_tasks in H.
  apply bind_ok in H. destruct H as ([[s1 tu] ru] & H1 & H). apply bind_ok in H. destruct H as (c' & H2 & H).
  destruct (cancel_release_spec _ _ _ _ _ _ _ Hd H1) as (E1 & _ & I3 & I4).
  pose proof (cancel_release_WIX _ _ _ _ x0 _ _ _ HW Hnd (fun i _ => eq_refl) H1) as HW1.
  assert (Hs1 : CS (core_of s1)) by (eapply CS_keys; [exact E1 | exact Hs]).
  assert (HW2 : WIX (fun i => tid_mem i ids || x0 i) c').
  { eapply remove_tasks_batched_WIX; [exact HW1 | exact Hs1 | | exact H2].
    intros i Hi Hp. change (present (K s1) i) in Hp. rewrite E1 in Hp.
    destruct (I4 i Hi) as [[]|(y & Hy & Hpy & Hf)]. rewrite orb_false_r. apply tid_mem_In. eapply Hcl; eassumption. }
  destruct (remove_tasks_batched_shrinks _ _ _ Hs1 H2) as [Sh _].
  rewrite (send_all_core _ _ _ H). change (WI c'). eapply WIX_unhide; [exact HW2|].
  intros i Hi. cbv beta in Hi. unfold x0 in Hi. rewrite orb_false_r in Hi. apply tid_mem_In in Hi.
  destruct (find_task (c_tasks c') i) eqn:Ef; [|reflexivity]. exfalso.
  assert (Hp : present (keys c') i) by (apply find_task_present; eauto).
  apply (shr_dom _ _ _ Sh) in Hp. destruct Hp as [Hp Hn]. apply Hn. apply I3; [exact Hi|]. rewrite <- E1. exact Hp.
Qed.

Lemma wake_consumers_WI csm : forall c ret c' ret', WI c -> wake_consumers c csm ret = Ok (c', ret') -> WI c'.
Proof.
  induction csm as [|x r IH]; cbn [wake_consumers]; intros c ret c' ret' HW H; [inversion H; subst; exact HW|].
  apply bind_ok in H. destruct H as (t & Ht & H). apply get_task_find in Ht.
  destruct (find_task_some _ _ _ Ht) as [_ Hid].
  destruct (t_state t) as [n| | | | | |] eqn:Est; try discriminate.
  destruct (N.eqb n 0); [discriminate|].
  assert (H1 : WI (upd_task c (with_state t (Waiting (n - 1))))).
  { eapply C_same; [exact HW | exact Ht | exact Hid | rewrite Est; reflexivity]. }
  destruct (N.eqb (n - 1) 0).
  - apply bind_ok in H. destruct H as ([qs rt] & _ & H). eapply IH; [|exact H]. exact H1.
  - eapply IH; [exact H1 | exact H].
Qed.

Lemma release_sn c id t w1 wk wk' rq :
  WI c -> find_task (c_tasks c) id = Some t -> pl (t_state t) = PA w1 ->
  find_worker (c_workers c) w1 = Some wk -> remove_sn_task wk id rq = Ok wk' ->
  WIX (xadd x0 id) (upd_worker c wk').
Proof. intros HW Ef Hp Hw Hrm. eapply C_relA; [exact HW | reflexivity | exact Ef | exact Hp | exact Hw | exact Hrm]. Qed.

Lemma release_mn c id t ws c1 :
  WI c -> find_task (c_tasks c) id = Some t -> t_state t = RunningMN ws ->
  reset_mn_workers c ws id = Ok c1 -> WIX (xadd x0 id) c1 /\ c_tasks c1 = c_tasks c.
Proof.
  (* the worker sets do not see resources: any request will do *)
  intros HW Ef Est H1. exact (released_WIX _ _ _ _ _ _ HW eq_refl Ef (rel_mn_checked _ _ (mkRq 0 []) _ _ _ Est H1)).
Qed.

Lemma release_retracting c id t w1 c1 :
  WI c -> find_task (c_tasks c) id = Some t -> t_state t = Retracting w1 ->
  try_remove_redirection c t = Ok c1 -> WIX (xadd x0 id) c1 /\ c_tasks c1 = c_tasks c.
Proof.
  intros HW Ef Est H1. exact (released_WIX _ _ _ _ _ _ HW eq_refl Ef (rel_retracting _ _ (mkRq 0 []) _ _ _ Est H1)).
Qed.

Lemma task_finished_WI s w id s' b : WI (core_of s) -> CS (core_of s) -> task_finished s w id = Ok (s', b) -> WI (core_of s').
Proof.
  intros HW Hs H. destruct (find_task (c_tasks (core_of s)) id) as [t|] eqn:Ef.
  2:{ unfold task_finished in H. rewrite Ef in H. inversion H; subst; exact HW. }
  destruct (find_task_some _ _ _ Ef) as [_ Hid].
  destruct (task_finished_released _ _ _ _ _ _ H Ef) as (rq & c1 & s1 & c3 & retracted & s2 & c4 & _ & Hrel & Hf & Hw & Hr & Hrm & -> & _).
  destruct (released_WIX _ _ _ _ _ _ HW eq_refl Ef Hrel) as [W1 Et].
  assert (HW2 : WI (upd_task c1 (with_state t Finished))).
  { exact (C_show _ _ W1 x0 id (with_state t Finished) ltac:(xs) ltac:(xs) Hid (or_introl eq_refl)). }
  assert (Ek : keys c1 = K s) by (unfold K, keys; rewrite Et; reflexivity).
  assert (Hs1 : CS c1) by (eapply CS_keys; [exact Ek | exact Hs]).
  assert (E2 : keys (upd_task c1 (with_state t Finished)) = K s).
  { rewrite <- Ek. apply (upd_task_frame c1 id t); [exact Hs1 | rewrite Et; exact Ef | reflexivity | reflexivity]. }
  destruct (process_task_finished_active _ _ _ Hf) as [C1 _].
  assert (Ks1 : K s1 = K s) by (unfold K; rewrite C1; exact E2).
  assert (Hss1 : CS (core_of s1)) by (eapply CS_keys; [exact Ks1 | exact Hs]).
  pose proof (wake_consumers_frame _ _ _ _ _ Hss1 Hw) as E3.
  assert (Ks2 : K s2 = K s).
  { rewrite (process_retracted_K (st_core s1 c3) _ _ (CS_keys _ _ E3 Hss1) Hr). unfold K in *. change (keys c3 = keys (core_of s)). rewrite E3. exact Ks1. }
  assert (Hss2 : CS (core_of s2)) by (eapply CS_keys; [exact Ks2 | exact Hs]).
  assert (HW3 : WI (core_of s1)) by (unfold core_same in C1; rewrite C1; exact HW2).
  pose proof (wake_consumers_WI _ _ _ _ _ HW3 Hw) as HW4.
  pose proof (process_retracted_WI (st_core s1 c3) _ _ HW4 Hr) as HW5.
  change (WI c4). eapply remove_task_WIX; [exact HW5 | exact Hss2 | exact Hrm | right; reflexivity].
Qed.

Lemma remove_waiting_consumers_WIX X l : forall c c', WIX X c -> CS c -> remove_waiting_consumers c l = Ok c' -> WIX X c'.
Proof.
  induction l as [|id r IH]; cbn [remove_waiting_consumers]; intros c c' HW Hs H; [inversion H; subst; exact HW|].
  apply bind_ok in H. destruct H as ([c1 stt] & H1 & H). destruct stt; try discriminate.
  destruct (remove_task_shrinks _ _ _ _ Hs H1) as [Sh _].
  eapply IH; [eapply remove_task_WIX; [exact HW | exact Hs | exact H1 | right; reflexivity] | exact (shr_sorted _ _ _ Sh) | exact H].
Qed.

Lemma nodup_non_finished j : jsorted (j_tasks j) -> NoDup (non_finished_task_ids j).
Proof.
  unfold non_finished_task_ids. generalize (j_id j) as jid. intros jid.
  induction (j_tasks j) as [|[k v] r IH]; cbn [filter map jsorted]; intros Hs; [constructor|].
  destruct Hs as [Hlt Hs].
  destruct (match snd (k, v) with JW | JR => true | _ => false end); [|apply IH; exact Hs].
  cbn [map fst]. constructor; [|apply IH; exact Hs].
  intros Hin. apply in_map_iff in Hin. destruct Hin as ([k' v'] & E & Hin). cbn in E. inversion E; subst k'.
  apply filter_In in Hin. destruct Hin as [Hin _]. specialize (Hlt _ _ Hin). lia.
Qed.

Lemma process_task_failed_nodup s t aborted k s' ids :
  HOK (hq_of s) -> process_task_failed s t aborted k = Ok (s', ids) -> NoDup ids.
Proof.
  intros H Hc. unfold process_task_failed in Hc.
  apply bind_ok in Hc. destruct Hc as (s1 & H1 & Hc).
  apply bind_ok in Hc. destruct Hc as (j & Hj & Hc).
  apply bind_ok in Hc. destruct Hc as (j1 & Hj1 & Hc).
  apply bind_ok in Hc. destruct Hc as (s2 & H2 & Hc).
  pose proof (ptf_mid _ _ _ _ _ _ _ _ H H1 Hj Hj1 H2) as Hk2.
  apply bind_ok in Hc. destruct Hc as (j2 & Hj2 & Hc).
  destruct (j_maxfails j2) as [mf|]; [|inversion Hc; subst; constructor].
  destruct (N.ltb mf (j_nfail j2)); [|inversion Hc; subst; constructor].
  apply bind_ok in Hc. destruct Hc as (s3 & H3 & Hc). inversion Hc; subst.
  apply nodup_non_finished. apply jok_sorted. apply Hk2. eapply find_job_in. unfold hq_get_job in Hj2.
  destruct (find_job (h_jobs (s_hq (fst s2))) (fst t)) eqn:E; [|discriminate]. inversion Hj2; subst. exact E.
Qed.

(** The premise about the solver: a task placed as a multi-node task has a multi-node request
    (see InvWWitness.v for what happens otherwise). *)
Definition fail_mn_ok (c : core) (id : tid) : Prop :=
  forall t ws rq, find_task (c_tasks c) id = Some t -> t_state t = RunningMN ws ->
                  get_rq (c_rqs c) (t_rq t) = Ok rq -> rq_is_mn rq = true.

Lemma task_failed_WI s w id k s' :
  HOK (hq_of s) -> CB s -> WI (core_of s) -> (w <> None -> fail_mn_ok (core_of s) id) ->
  task_failed s w id k = Ok s' -> WI (core_of s').
Proof.
  intros Hok HC HW Hmn H. destruct (find_task (c_tasks (core_of s)) id) as [t|] eqn:Ef.
  2:{ unfold task_failed in H. rewrite Ef in H. inversion H; subst; exact HW. }
  destruct (find_task_some _ _ _ Ef) as [Hin Hid].
  destruct (task_failed_released _ _ _ _ _ _ H Ef) as (rq & c1 & Hrq & Hrel & csm & c2 & c3 & stt & s1 & cancel_ids & Hcs & H2 & H3 & _ & H4 & H5).
  assert (A1 : WIX (xadd x0 id) c1 /\ c_tasks c1 = c_tasks (core_of s)).
  { destruct Hrel as [Hrel | (-> & Hw & Emn & ws & Est)]; [exact (released_WIX _ _ _ _ _ _ HW eq_refl Ef Hrel)|].
    rewrite (Hmn Hw t ws rq Ef Est Hrq) in Emn. discriminate. }
  destruct A1 as [W1 Et].
  assert (Ek : keys c1 = K s) by (unfold K, keys; rewrite Et; reflexivity).
  assert (Hs1 : CS c1) by (eapply CS_keys; [exact Ek | exact (cb_s _ HC)]).
  assert (Hjob : forall x, In x csm -> fst x = fst id).
  { rewrite <- Hid. eapply recursive_consumers_job; [| |exact Hcs].
    - change (KD (keys c1)). rewrite Ek. exact (cb_d _ HC).
    - rewrite Et. exact Hin. }
  destruct (remove_waiting_consumers_shrinks _ _ _ Hs1 H2) as [Sh2 _].
  pose proof (remove_waiting_consumers_WIX _ _ _ _ W1 Hs1 H2) as W2.
  destruct (remove_task_shrinks _ _ _ _ (shr_sorted _ _ _ Sh2) H3) as [Sh3 _].
  assert (W3 : WI c3).
  { assert (W3x : WIX (xadd x0 id) c3) by (eapply remove_task_WIX; [exact W2 | exact (shr_sorted _ _ _ Sh2) | exact H3 | left; xs]).
    destruct (remove_task_view _ _ _ _ (shr_sorted _ _ _ Sh2) H3) as (_ & _ & _ & _ & Tv).
    eapply (C_show0 _ _ W3x x0 id); [xs | xs | left]. rewrite Tv. unfold tset. rewrite tid_eqb_refl. reflexivity. }
  pose proof (shrinks_trans _ _ _ _ _ Sh2 Sh3) as Sh23. rewrite Ek in Sh23.
  destruct (process_task_failed_active (st_core s c3) id csm k s1 cancel_ids Hok H4) as (C4 & A4 & J4 & N4).
  pose proof (process_task_failed_nodup (st_core s c3) id csm k s1 cancel_ids Hok H4) as Hnd.
  assert (Ks1 : K s1 = keys c3) by (unfold K; rewrite C4; reflexivity).
  assert (W4 : WI (core_of s1)) by (unfold core_same in C4; rewrite C4; exact W3).
  destruct cancel_ids as [|c0 cr] eqn:Ecid; [subst s'; exact W4|].
  change (on_cancel_tasks s1 (c0 :: cr) = Ok s') in H5. rewrite <- Ecid in *.
  assert (Hs3 : CS (core_of s1)) by (unfold CS; fold (K s1); rewrite Ks1; exact (shr_sorted _ _ _ Sh23)).
  assert (Hd3 : KD (K s1)) by (rewrite Ks1; eapply shrinks_KD; [exact Sh23 | exact (cb_d _ HC)]).
  eapply on_cancel_tasks_WI; [exact W4 | exact Hs3 | exact Hd3 | exact Hnd | | exact H5].
  intros x y Hy Hpx Hf. rewrite Ks1 in Hpx. apply (shr_dom _ _ _ Sh23) in Hpx. destruct Hpx as [Hpx Hnx].
  rewrite in_app_iff in Hnx. cbn [In] in Hnx.
  apply N4; [rewrite Ecid; discriminate | rewrite Hf; apply J4; exact Hy | | tauto | intros E; apply Hnx; right; left; auto].
  rewrite (active_same s (st_core s c3)) by (intros; reflexivity). apply (cb_b _ HC). exact Hpx.
Qed.

Lemma WIX_views X c c' : WIX X c -> wsorted (c_workers c') -> rsorted (c_redirects c') -> c_wcounter c' = c_wcounter c ->
  (forall i, TV (c_tasks c') i = TV (c_tasks c) i) ->
  (forall x, find_worker (c_workers c') x = find_worker (c_workers c) x) ->
  (forall i, find_redirect (c_redirects c') i = find_redirect (c_redirects c) i) -> WIX X c'.
Proof.
  intros (Sw & Sr & H & Hb) Sw' Sr' Ec Et Ew Er.
  eapply WIX_intro; [exact Sw' | exact Sr' | exact H | | exact Ew | exact Er | rewrite Ec; exact Hb].
  intros i. unfold hv. rewrite Et. reflexivity.
Qed.

Lemma tfpts_split wk id rq wk' : task_from_prefilled_to_started wk id rq = Ok wk' ->
  exists wk1, remove_prefill_task wk id = Ok wk1 /\ insert_sn_task wk1 id rq = Ok wk'.
Proof.
  unfold task_from_prefilled_to_started, remove_prefill_task, insert_sn_task.
  destruct (w_assign wk) as [a p f|] eqn:Ea; [|discriminate].
  destruct (tid_mem id p); cbn [negb]; [|discriminate]. destruct (tid_mem id a) eqn:Em; [discriminate|].
  intros H. inversion H; subst. eexists. split; [reflexivity|]. cbn [w_assign with_assign]. rewrite Em. reflexivity.
Qed.

Lemma task_running_WI s w id rv s' b : WI (core_of s) -> task_running s w id rv = Ok (s', b) -> WI (core_of s').
Proof.
  intros HW H. unfold task_running in H.
  destruct (find_task (c_tasks (core_of s)) id) as [t|] eqn:Ef; [|inversion H; subst; exact HW].
  destruct (find_task_some _ _ _ Ef) as [_ Hid].
  apply bind_ok in H. destruct H as (rq & _ & H). apply bind_ok in H. destruct H as ([s1 ws] & H1 & H).
  apply bind_ok in H. destruct H as (s2 & H2 & H). inversion H; subst s' b.
  destruct (process_task_started_active _ _ _ _ _ _ H2) as [C2 _]. unfold core_same in C2. rewrite C2. clear H2 C2 H.
  set (c := core_of s) in *.
  destruct (t_state t) as [n|w1 rv1|w1|w1|w1 rv1|wsx|] eqn:Est; try discriminate.
  - destruct (negb (N.eqb w1 w)) eqn:En; [discriminate|]. apply negb_false_iff, N.eqb_eq in En. subst w1.
    destruct (negb (N.eqb rv1 rv)); [discriminate|]. inversion H1; subst s1 ws.
    change (WI (upd_task c (with_state t (Running w rv)))).
    eapply C_same; [exact HW | exact Ef | exact Hid | rewrite Est; reflexivity].
  - destruct (negb (N.eqb w1 w)) eqn:En; [discriminate|]. apply negb_false_iff, N.eqb_eq in En. subst w1.
    apply bind_ok in H1. destruct H1 as (wk & Hw & H1). apply get_worker_find in Hw. cbn [c_workers upd_task with_tasks] in Hw.
    apply bind_ok in H1. destruct H1 as (wk' & Hst & H1).
    apply bind_ok in H1. destruct H1 as (q & _ & H1). apply bind_ok in H1. destruct H1 as (q' & _ & H1). inversion H1; subst s1 ws.
    destruct (tfpts_split _ _ _ _ Hst) as (wk1 & Hrm & Hins).
    assert (Hp : pl (t_state t) = PP w) by (rewrite Est; reflexivity).
    pose proof (C_relP x0 c HW id t w wk wk1 eq_refl Ef Hp Hw Hrm) as W1.
    destruct (find_worker_some _ _ _ Hw) as [_ Hwi].
    destruct (remove_prefill_task_spec _ _ _ Hrm) as (Hi1 & _). destruct (insert_sn_task_spec _ _ _ _ Hins) as (Hi2 & _).
    assert (Hw1 : find_worker (c_workers (upd_worker c wk1)) w = Some wk1).
    { cbn [c_workers upd_worker with_workers]. rewrite find_set_worker, Hi1, Hwi, N.eqb_refl. reflexivity. }
    pose proof (C_putA _ _ W1 x0 id (with_state t (Running w rv)) w wk1 wk' (rq_res rq) ltac:(xs) ltac:(xs) Hid eq_refl Hw1 Hins) as W2.
    eapply (WIX_views _ _ _ W2).
    + apply set_worker_sorted. exact (WIX_sw _ _ HW).
    + exact (WIX_sr _ _ HW).
    + reflexivity.
    + intros i. reflexivity.
    + intros x. cbn [core_of st_core with_core fst s_core c_workers upd_worker upd_task with_workers with_tasks with_queues].
      rewrite !find_set_worker, Hi2, Hi1. destruct (N.eqb x (w_id wk)); reflexivity.
    + intros i. reflexivity.
  - destruct (negb (N.eqb w1 w)) eqn:En; [discriminate|]. apply negb_false_iff, N.eqb_eq in En. subst w1.
    apply bind_ok in H1. destruct H1 as (c1 & Hc1 & H1).
    apply bind_ok in H1. destruct H1 as (wk & Hw & H1). apply get_worker_find in Hw. cbn [c_workers upd_task with_tasks] in Hw.
    apply bind_ok in H1. destruct H1 as (wk' & Hins & H1). inversion H1; subst s1 ws.
    assert (HW0 : WI (core_of (ask_scheduling s))) by (refine (WIX_frame _ c _ eq_refl eq_refl eq_refl eq_refl _); exact HW).
    destruct (try_remove_redirection_WIX _ _ _ _ HW0 Hc1) as (W1 & T1 & R1).
    assert (Ef1 : find_task (c_tasks c1) id = Some t) by (rewrite T1; exact Ef).
    assert (W2 : WIX (xadd x0 id) c1).
    { eapply C_hide; [exact W1 | exact Ef1 | right; split; [rewrite Est; reflexivity | rewrite <- Hid; exact R1]]. }
    exact (C_putA _ _ W2 x0 id (with_state t (Running w rv)) w wk wk' (rq_res rq) ltac:(xs) ltac:(xs) Hid eq_refl Hw Hins).
  - destruct wsx as [|w0 wr]; [discriminate|]. destruct (N.eqb w0 w); [|discriminate]. inversion H1; subst s1 ws. exact HW.
Qed.

Lemma requeue_WI s t c1 s' b :
  WI (upd_task c1 (with_state t (Waiting 0))) ->
  (do (qs, ret) <- add_ready_task (c_queues c1) (with_state t (Waiting 0));
   do s'' <- process_retracted (st_core s (with_queues (upd_task c1 (with_state t (Waiting 0))) qs)) ret;
   Ok (s'', true)) = Ok (s', b) -> WI (core_of s').
Proof.
  intros HW H. apply bind_ok in H. destruct H as ([qs ret] & _ & H). apply bind_ok in H. destruct H as (s2 & Hr & H). inversion H; subst.
  eapply process_retracted_WI; [|exact Hr]. exact HW.
Qed.

Definition reject_ok (c : core) (w : wid) (id : tid) (rv : option N) : Prop :=
  forall t w1 rv1, find_task (c_tasks c) id = Some t -> t_state t = Assigned w1 rv1 -> w = w1 /\ rv = Some rv1.

Lemma task_reject_WI s w id rv s' b :
  WI (core_of s) -> reject_ok (core_of s) w id rv -> task_reject s w id rv = Ok (s', b) -> WI (core_of s').
Proof.
  intros HW Hrej H. unfold task_reject in H. set (c := core_of s) in *.
  destruct (find_task (c_tasks c) id) as [t|] eqn:Ef; [|inversion H; subst; exact HW].
  destruct (find_task_some _ _ _ Ef) as [_ Hid].
  apply bind_ok in H. destruct H as (wk & Hw & H). apply get_worker_find in Hw.
  destruct (find_worker_some _ _ _ Hw) as [_ Hwi].
  cbv zeta in H.
  match type of H with context [upd_worker c ?k] => set (wk1 := k) in * end.
  assert (Hk1 : w_id wk1 = w /\ w_assign wk1 = w_assign wk).
  { subst wk1. destruct rv as [v|]; [destruct (nn_mem _ _)|]; cbn; auto. }
  destruct Hk1 as [Hi1 Ha1].
  assert (W0 : WI (upd_worker c wk1)) by (eapply C_wsame; [exact HW | exact Hw | exact Hi1 | exact Ha1]).
  assert (Hw0 : find_worker (c_workers (upd_worker c wk1)) w = Some wk1).
  { cbn [c_workers upd_worker with_workers]. rewrite find_set_worker, Hi1, N.eqb_refl. reflexivity. }
  apply bind_ok in H. destruct H as (rq & _ & H).
  destruct (t_state t) as [n|w1 rv1|w1|w1|w1 rv1|wsx|] eqn:Est;
    try (apply bind_ok in H; destruct H as (r0 & Hr0 & _); discriminate).
  - (* Assigned *)
    destruct (Hrej t w1 rv1 Ef Est) as [<- ->]. rewrite N.eqb_refl in H. cbn [negb] in H. rewrite N.eqb_refl in H.
    apply bind_ok in H. destruct H as ([c1 cont] & Hr & H). apply bind_ok in Hr. destruct Hr as (wk' & Hrm & Hr). inversion Hr; subst c1 cont.
    eapply requeue_WI; [|exact H].
    assert (Hp : pl (t_state t) = PA w) by (rewrite Est; reflexivity).
    pose proof (C_relA x0 _ W0 id t w wk1 wk' (rq_res rq) eq_refl Ef Hp Hw0 Hrm) as W1.
    exact (C_show _ _ W1 x0 id (with_state t (Waiting 0)) ltac:(xs) ltac:(xs) Hid (or_introl eq_refl)).
  - (* Prefilled *)
    apply bind_ok in H. destruct H as ([c1 cont] & Hr & H).
    apply bind_ok in Hr. destruct Hr as (wk' & Hrm & Hr). apply bind_ok in Hr. destruct Hr as (q & _ & Hr).
    apply bind_ok in Hr. destruct Hr as (q' & _ & Hr). inversion Hr; subst c1 cont.
    destruct (remove_prefill_exact _ _ _ Hrm) as (a & p & f & Ea & Hm & _).
    pose proof (WI_member_P _ w wk1 a p f id t W0 Hw0 Ea Hm Ef) as X. rewrite Est in X. injection X as ->.
    eapply requeue_WI; [|exact H].
    assert (Hp : pl (t_state t) = PP w) by (rewrite Est; reflexivity).
    pose proof (C_relP x0 _ W0 id t w wk1 wk' eq_refl Ef Hp Hw0 Hrm) as W1.
    exact (C_show _ _ W1 x0 id (with_state t (Waiting 0)) ltac:(xs) ltac:(xs) Hid (or_introl eq_refl)).
  - (* Retracting *)
    apply bind_ok in H. destruct H as ([c1 cont] & Hr & H).
    destruct (negb (N.eqb w w1)).
    + inversion Hr; subst c1 cont. inversion H; subst s' b. exact W0.
    + inversion Hr; subst c1 cont.
      destruct (find_redirect (c_redirects (upd_worker c wk1)) id) as [[target rvt]|] eqn:Er.
      * apply bind_ok in H. destruct H as (s1 & Hs1 & H). inversion H; subst s' b.
        rewrite (send_worker_core _ _ _ _ Hs1).
        change (WI (upd_task (with_redirects (upd_worker c wk1) (del_redirect (c_redirects (upd_worker c wk1)) id)) (with_state t (Assigned target rvt)))).
        eapply C_redirect_done; [exact W0 | exact Er | exact Hid | reflexivity].
      * eapply requeue_WI; [|exact H].
        eapply C_neutral; [exact W0 | exact Ef | exact Hid | right; split; [rewrite Est; reflexivity | exact Er] | left; reflexivity].
Qed.

Lemma request_enabled_WI s w rq rv s' : WI (core_of s) -> request_enabled s w rq rv = Ok s' -> WI (core_of s').
Proof.
  intros HW H. unfold request_enabled in H. apply bind_ok in H. destruct H as (wk & Hw & H). apply get_worker_find in Hw. inversion H; subst s'.
  destruct (find_worker_some _ _ _ Hw) as [_ Hwi].
  change (WI (upd_worker (core_of s) (with_blocked wk (nn_remove (rq, rv) (w_blocked wk))))).
  eapply C_wsame; [exact HW | exact Hw | exact Hwi | reflexivity].
Qed.

Lemma retract_response_states_WI ids : forall c w acc c' acc',
  WI c -> retract_response_states c w ids acc = (c', acc') -> WI c'.
Proof.
  induction ids as [|id r IH]; cbn [retract_response_states]; intros c w acc c' acc' HW H; [inversion H; subst; exact HW|].
  destruct (find_task (c_tasks c) id) as [t|] eqn:Ef; [|eapply IH; eassumption].
  destruct (find_task_some _ _ _ Ef) as [_ Hid].
  destruct (t_state t) as [n|w1 rv1|w1|w1|w1 rv1|wsx|] eqn:Est; try (eapply IH; eassumption).
  destruct (N.eqb w w1); [|eapply IH; eassumption].
  destruct (find_redirect (c_redirects c) id) as [[target rv]|] eqn:Er.
  - eapply IH; [|exact H]. eapply C_redirect_done; [exact HW | exact Er | exact Hid | reflexivity].
  - eapply IH; [|exact H].
    eapply C_neutral; [exact HW | exact Ef | exact Hid | right; split; [rewrite Est; reflexivity | exact Er] | left; reflexivity].
Qed.

Lemma on_retract_response_WI s w ids s' : WI (core_of s) -> on_retract_response s w ids = Ok s' -> WI (core_of s').
Proof.
  unfold on_retract_response. intros HW H. destruct (retract_response_states _ w ids []) as [c' groups] eqn:E.
  apply bind_ok in H. destruct H as (s2 & H & H2).
  assert (X2 : WI (core_of s2)).
  { rewrite (send_redirected_core _ _ _ H). change (WI c'). eapply retract_response_states_WI; [exact HW | exact E]. }
  destruct (retract_wakes _ _ _ _); inversion H2; subst s'; clear H2; [|exact X2].
  refine (WIX_frame _ (core_of s2) _ eq_refl eq_refl eq_refl eq_refl _). exact X2.
Qed.
