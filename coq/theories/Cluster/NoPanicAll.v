(** C09, server side, put together: in EVERY reachable state of the system model no client request,
    no worker connection, no worker loss and no scheduler answer makes the server panic.

    Parts: client requests NoPanicC*.v, connection / loss NoPanicL*.v, scheduling NoPanicS*.v; the
    state invariants they rest on: InvBundle.v ([reachable_INV]), NoPanicL0.v ([reachable_PW], no
    hypothesis), InvWX*.v ([reachable_MNE_RWA_MNOK]).

    Hypotheses.  On the history: [op_wf] and the executable [run_fresh] (under which the invariants
    were proved; RejHyp.v).  On the operation itself ([req_ok]):
    - a task-array submit names pairwise distinct explicit ids (the real [IntArray] is a set: true
      of every message that deserialises; the model's list could repeat one, site 220);
    - a scheduler answer satisfies the executable [sol_ok] (NoPanicS7.v): what [run_scheduling]
      relies on and cannot check - classes name existing requests, no more tasks than the queue
      holds, target workers exist and are in the right mode, worker sets disjoint and non-empty ...
      [sol_ok] is evaluated on every scheduler answer of every recorded trace of the real solver
      (monitor `hypothesis-sol_ok-violated`), [NoPanicS8.sol_ok_needed] shows each conjunct is
      necessary.
    Nothing is assumed about a task graph: one that names an undefined resource request is refused
    (fix F27; before it the real server panicked - sites 223 / 224). *)
From HQ Require Import Base.Prelude Cluster.Types Cluster.Sys Cluster.RejHyp Cluster.InvBundle Cluster.InvWX3 Cluster.NoPanicC5 Cluster.BijFinal Cluster.NoPanicL0 Cluster.NoPanicL4 Cluster.NoPanicS7 Cluster.NoPanicS8.
From Coq Require Import ZArith.
Local Open Scope N_scope.

Theorem client_requests_total_reachable ops reserve maxfill s outs o :
  Forall op_wf ops -> run_fresh (init_sys reserve maxfill) ops = true -> run (init_sys reserve maxfill) ops = Ok (s, outs) ->
  client_op o -> op_ok s o -> exists r, step s o = Ok r.
Proof.
  intros Hwf Hf H Hco Hok.
  eapply client_requests_total; try eassumption.
  - eapply reachable_INV; eassumption.
  - eapply reachable_PW. exact H.
  - destruct o; try exact I. destruct (reachable_MNE_RWA _ _ _ _ _ Hwf Hf H) as [A B]. split; [exact A | exact B].
Qed.

Theorem client_requests_never_panic_reachable ops reserve maxfill s outs o :
  Forall op_wf ops -> run_fresh (init_sys reserve maxfill) ops = true -> run (init_sys reserve maxfill) ops = Ok (s, outs) ->
  client_op o -> op_ok s o -> is_panic (step s o) = false.
Proof. intros Hwf Hf H Hco Hok. destruct (client_requests_total_reachable _ _ _ _ _ _ Hwf Hf H Hco Hok) as (r & ->). reflexivity. Qed.

(** Operations processed by the server itself (the rest are steps of a worker process and the
    delivery of a worker's message to the server: NoPanicU*.v). *)
Definition server_op (o : op) : Prop :=
  match o with
  | OpDDown _ _ | OpDUp _ | OpEnd _ _ _ | OpFailNext _ _ | OpTimer => False
  | _ => True
  end.

Definition req_ok (s : sys) (o : op) : Prop :=
  match o with
  | OpSubmit _ ids _ _ _ _ _ _ => NoDup ids
  | OpSched sol => sol_ok (s_core s) sol = true
  | _ => True
  end.

Theorem server_never_panics ops reserve maxfill s outs o :
  Forall op_wf ops -> run_fresh (init_sys reserve maxfill) ops = true -> run (init_sys reserve maxfill) ops = Ok (s, outs) ->
  server_op o -> req_ok s o -> is_panic (step s o) = false.
Proof.
  intros Hwf Hf H Hso Hrq.
  destruct (worker_events_never_panic_reachable _ _ _ _ _ Hwf Hf H) as [Hconn Hlost].
  destruct o; try contradiction;
    try (eapply client_requests_never_panic_reachable; try eassumption; exact I).
  - apply Hconn.
  - apply Hlost.
  - eapply scheduling_never_panics_reachable; try eassumption. eapply reachable_PW; exact H.
Qed.

Print Assumptions server_never_panics.
