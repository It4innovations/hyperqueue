(** C07: the crash counter of a task changes ONLY by the crash rule.  For every operation of the
    system model, a task that exists before and after keeps its crash limit, and its crash counter
    is unchanged - except when a worker is lost for a failure reason while the task was running on
    it: then it grows by exactly one. *)
From HQ Require Import Base.Prelude Cluster.Types Cluster.Core Cluster.Reactor Cluster.Worker Cluster.Server Cluster.Sys Cluster.ProofsJob Cluster.ProofsMore Cluster.ProofsTerminal Cluster.ProofsStep Cluster.BijBase Cluster.BijCore Cluster.BijHq Cluster.BijSt Cluster.BijReact Cluster.FrameGen.
From HQ Require Import Cluster.ModelFacts.
From HQ Require Import Cluster.ReactSplit.
From Coq Require Import ZArith Lia Sorting.Sorted.
From HQ Require Import Cluster.RejHyp Cluster.StepShape.
Local Open Scope N_scope.

Arguments N.add : simpl never.
Arguments N.sub : simpl never.

Definition ci (t : task) : N * crashlimit := (t_crash t, t_climit t).
Lemma ci_state t s : ci (with_state t s) = ci t. Proof. reflexivity. Qed.
Lemma ci_inst t i : ci (with_inst t i) = ci t. Proof. reflexivity. Qed.

Notation ckeys := (pkeys _ ci).
Notation CK := (PK _ ci).

Definition cget (c : core) (id : tid) : option (N * crashlimit) := option_map ci (find_task (c_tasks c) id).

Fixpoint plook (l : list (tid * (N * crashlimit))) (id : tid) : option (N * crashlimit) :=
  match l with [] => None | (k, a) :: r => if tid_eqb id k then Some a else plook r id end.
Lemma cget_plook c id : cget c id = plook (ckeys c) id.
Proof.
  unfold cget, pkeys. induction (c_tasks c) as [|h r IH]; cbn [find_task map plook]; [reflexivity|].
  unfold pkey at 1. destruct (tid_eqb id (t_id h)); [reflexivity | exact IH].
Qed.
Lemma cframe c c' : ckeys c' = ckeys c -> forall id, cget c' id = cget c id.
Proof. intros E id. rewrite !cget_plook, E. reflexivity. Qed.

Lemma TS_CS c : TS c <-> CS c.
Proof. unfold TS, CS, KS, keys. rewrite map_fst_keys. reflexivity. Qed.

(** [csub]: surviving tasks keep their crash info. *)
Definition csub (c c' : core) : Prop := TS c' /\ forall id a, cget c' id = Some a -> cget c id = Some a.
Lemma csub_frame c c' : TS c -> ckeys c' = ckeys c -> csub c c'.
Proof. intros Hs E. split; [eapply PS_keys; eassumption|]. intros id a. rewrite (cframe _ _ E). auto. Qed.
Lemma csub_trans c1 c2 c3 : csub c1 c2 -> csub c2 c3 -> csub c1 c3.
Proof. intros [_ A] [S B]. split; [exact S|]. intros id a H. apply A, B, H. Qed.
Lemma csub_tasks c c' : TS c -> c_tasks c' = c_tasks c -> csub c c'.
Proof. intros Hs E. split; [unfold TS; rewrite E; exact Hs|]. intros id a. unfold cget. rewrite E. auto. Qed.


Lemma remove_consumer_from_ci deps : forall ts cid ts',
  remove_consumer_from ts deps cid = Ok ts' ->
  forall id, option_map ci (find_task ts' id) = option_map ci (find_task ts id).
Proof.
  induction deps as [|d r IH]; cbn [remove_consumer_from]; intros ts cid ts' H id; [inversion H; reflexivity|].
  destruct (find_task ts d) as [input|] eqn:Ef; [|eapply IH; eassumption].
  destruct (tid_mem cid (t_consumers input)); [|discriminate].
  rewrite (IH _ _ _ H id), find_set_task. cbn [t_id with_consumers].
  destruct (tid_eqb id (t_id input)) eqn:E; [|reflexivity].
  apply tid_eqb_eq in E. destruct (find_task_some _ _ _ Ef) as [_ Hid]. rewrite E, Hid, Ef. reflexivity.
Qed.

Lemma remove_task_csub c id c' stt : TS c -> remove_task c id = Ok (c', stt) -> csub c c'.
Proof.
  intros Hs H. pose proof (remove_task_shrinks _ _ _ _ (proj1 (TS_CS c) Hs) H) as [Sh _].
  split; [apply TS_CS; exact (shr_sorted _ _ _ Sh)|].
  unfold remove_task in H. destruct (find_task (c_tasks c) id) as [t|] eqn:Ef; [|discriminate].
  assert (Hdel : forall x a, option_map ci (find_task (del_task (c_tasks c) id) x) = Some a -> cget c x = Some a).
  { intros x a. rewrite (find_del_task _ _ _ Hs). destruct (tid_eqb x id); [discriminate | auto]. }
  intros x a. unfold cget at 1.
  destruct (t_state t); try (inversion H; subst; apply Hdel).
  apply bind_ok in H. destruct H as (c2 & H2 & H).
  assert (E2 : c_tasks c2 = del_task (c_tasks c) id).
  { destruct (N.eqb unfinished_deps 0); [|inversion H2; reflexivity]. inv_binds H2. inversion H2; reflexivity. }
  destruct (N.ltb 0 unfinished_deps).
  - apply bind_ok in H. destruct H as (ts & Hr & H). inversion H; subst. cbn [c_tasks with_tasks].
    rewrite (remove_consumer_from_ci _ _ _ _ Hr), E2. apply Hdel.
  - inversion H; subst. rewrite E2. apply Hdel.
Qed.

Lemma remove_tasks_batched_csub l : forall c c', TS c -> remove_tasks_batched c l = Ok c' -> csub c c'.
Proof.
  induction l as [|id r IH]; cbn [remove_tasks_batched]; intros c c' Hs H; [inversion H; subst; apply csub_tasks; auto|].
  apply bind_ok in H. destruct H as ([c1 stt] & H1 & H).
  pose proof (remove_task_csub _ _ _ _ Hs H1) as S1. eapply csub_trans; [exact S1 | eapply IH; [exact (proj1 S1) | exact H]].
Qed.

Lemma remove_waiting_consumers_csub l : forall c c', TS c -> remove_waiting_consumers c l = Ok c' -> csub c c'.
Proof.
  induction l as [|id r IH]; cbn [remove_waiting_consumers]; intros c c' Hs H; [inversion H; subst; apply csub_tasks; auto|].
  apply bind_ok in H. destruct H as ([c1 stt] & H1 & H). destruct stt; try discriminate.
  pose proof (remove_task_csub _ _ _ _ Hs H1) as S1. eapply csub_trans; [exact S1 | eapply IH; [exact (proj1 S1) | exact H]].
Qed.

Lemma cancel_release_tasks ids : forall s tu ru s' tu' ru',
  cancel_release s ids tu ru = Ok (s', tu', ru') -> c_tasks (core_of s') = c_tasks (core_of s).
Proof.
  induction ids as [|id r IH]; cbn [cancel_release]; intros s tu ru s' tu' ru' H; [inversion H; reflexivity|].
  destruct (find_task _ id) as [t|]; [|eapply IH; exact H].
  apply bind_ok in H. destruct H as (csm & _ & H). apply bind_ok in H. destruct H as (rq & _ & H).
  destruct (t_state t); try discriminate.
  - rewrite (IH _ _ _ _ _ _ H). reflexivity.
  - inv_binds H. rewrite (IH _ _ _ _ _ _ H). reflexivity.
  - inv_binds H. rewrite (IH _ _ _ _ _ _ H). reflexivity.
  - apply bind_ok in H. destruct H as (c' & Hc' & H). rewrite (IH _ _ _ _ _ _ H). cbn. eapply try_remove_redirection_tasks; exact Hc'.
  - inv_binds H. rewrite (IH _ _ _ _ _ _ H). reflexivity.
  - apply bind_ok in H. destruct H as (c' & Hc' & H). destruct ws; [discriminate|]. rewrite (IH _ _ _ _ _ _ H). cbn. eapply reset_mn_all_tasks; exact Hc'.
Qed.

Lemma on_cancel_tasks_csub s ids s' : TS (core_of s) -> on_cancel_tasks s ids = Ok s' -> csub (core_of s) (core_of s').
Proof.
  intros Hs H. unfold on_cancel_tasks in H.
  apply bind_ok in H. destruct H as ([[s1 tu] ru] & H1 & H). apply bind_ok in H. destruct H as (c' & H2 & H).
  pose proof (cancel_release_tasks _ _ _ _ _ _ _ H1) as E1.
  rewrite (send_all_core _ _ _ H). cbn.
  eapply csub_trans; [apply csub_tasks; [exact Hs | exact E1]|].
  eapply remove_tasks_batched_csub; [unfold TS; rewrite E1; exact Hs | exact H2].
Qed.

Lemma task_finished_csub s w id s' b : TS (core_of s) -> task_finished s w id = Ok (s', b) -> csub (core_of s) (core_of s').
Proof.
  intros Hs H. unfold task_finished in H.
  destruct (find_task (c_tasks (core_of s)) id) as [t|] eqn:Ef; [|inversion H; subst; apply csub_tasks; auto].
  apply bind_ok in H. destruct H as (rq & _ & H). apply bind_ok in H. destruct H as (c1 & H1 & H).
  pose proof (released_tasks _ _ _ _ _ (finished_release _ _ _ _ _ _ H1)) as Et.
  assert (Ek : ckeys c1 = ckeys (core_of s)) by (unfold pkeys; rewrite Et; reflexivity).
  assert (Hs1 : TS c1) by (unfold TS; rewrite Et; exact Hs).
  cbv zeta in H.
  assert (E2 : ckeys (upd_task c1 (with_state t Finished)) = ckeys (core_of s)).
  { rewrite <- Ek. apply (upd_task_pframe _ ci c1 id t); [exact Hs1 | rewrite Et; exact Ef | reflexivity | reflexivity]. }
  apply bind_ok in H. destruct H as (s1 & Hf & H).
  destruct (process_task_finished_active _ _ _ Hf) as [C1 _].
  apply bind_ok in H. destruct H as ([c3 retracted] & Hw & H).
  apply bind_ok in H. destruct H as (s2 & Hr & H).
  apply bind_ok in H. destruct H as ([c4 stt] & Hrm & H).
  destruct stt; try discriminate. inversion H; subst.
  assert (Ks1 : ckeys (core_of s1) = ckeys (core_of s)) by (rewrite C1; exact E2).
  assert (Hss1 : TS (core_of s1)) by (eapply PS_keys; [exact Ks1 | exact Hs]).
  pose proof (wake_consumers_pframe _ ci ci_state _ _ _ _ _ Hss1 Hw) as E3.
  assert (Ks2 : ckeys (core_of s2) = ckeys (core_of s)).
  { pose proof (process_retracted_PK _ ci ci_state (st_core s1 c3) _ _ (PS_keys _ ci _ _ E3 Hss1) Hr) as Kr.
    unfold PK in Kr. rewrite Kr. change (ckeys c3 = ckeys (core_of s)). rewrite E3. exact Ks1. }
  assert (Hss2 : TS (core_of s2)) by (eapply PS_keys; [exact Ks2 | exact Hs]).
  eapply csub_trans; [apply csub_frame; [exact Hs | exact Ks2]|].
  exact (remove_task_csub _ _ _ _ Hss2 Hrm).
Qed.

Lemma task_failed_csub s w id k s' : TS (core_of s) -> task_failed s w id k = Ok s' -> csub (core_of s) (core_of s').
Proof.
  intros Hs H. unfold task_failed in H.
  destruct (find_task (c_tasks (core_of s)) id) as [t|] eqn:Ef; [|inversion H; subst; apply csub_tasks; auto].
  apply bind_ok in H. destruct H as (rq & _ & H). apply bind_ok in H. destruct H as (c1 & H1 & H).
  assert (Et : c_tasks c1 = c_tasks (core_of s))
    by (destruct (failed_release _ _ _ _ _ _ H1) as [Hrel | (-> & _)]; [exact (released_tasks _ _ _ _ _ Hrel) | reflexivity]).
  assert (Hs1 : TS c1) by (unfold TS; rewrite Et; exact Hs).
  apply bind_ok in H. destruct H as (csm & _ & H).
  apply bind_ok in H. destruct H as (c2 & H2 & H).
  pose proof (remove_waiting_consumers_csub _ _ _ Hs1 H2) as S2.
  apply bind_ok in H. destruct H as ([c3 stt] & H3 & H).
  pose proof (remove_task_csub _ _ _ _ (proj1 S2) H3) as S3.
  apply bind_ok in H. destruct H as (u & _ & H).
  apply bind_ok in H. destruct H as ([s1 cancel_ids] & H4 & H).
  pose proof (process_task_failed_core _ _ _ _ _ _ H4) as C4. cbn in C4.
  assert (S13 : csub (core_of s) (core_of s1)).
  { rewrite C4. eapply csub_trans; [apply csub_tasks; [exact Hs | exact Et]|]. eapply csub_trans; eassumption. }
  destruct cancel_ids; [inversion H; subst; exact S13|].
  eapply csub_trans; [exact S13 | eapply on_cancel_tasks_csub; [exact (proj1 S13) | exact H]].
Qed.

(** [csub] under its side condition, as a reflexive and transitive relation on states. *)
Definition CSR (s s' : st) : Prop := TS (core_of s) -> csub (core_of s) (core_of s').
Lemma CSR_refl s : CSR s s.
Proof. intros Hs. apply csub_tasks; [exact Hs | reflexivity]. Qed.
Lemma CSR_trans a b c : CSR a b -> CSR b c -> CSR a c.
Proof. intros A B Hs. pose proof (A Hs) as S1. exact (csub_trans _ _ _ S1 (B (proj1 S1))). Qed.

Lemma apply_one_csub s w u s' n : apply_one s w u = Ok (s', n) -> CSR s s'.
Proof.
  apply (apply_one_walk CSR).
  - intros x w0 id x' b X Hs. exact (task_finished_csub _ _ _ _ _ Hs X).
  - intros x w0 id k x' X Hs. exact (task_failed_csub _ _ _ _ _ Hs X).
  - intros x w0 id rv x' b X Hs. apply csub_frame; [exact Hs|]. exact (proj1 (task_running_spec_P _ ci ci_state _ _ _ _ _ _ Hs X)).
  - intros x w0 id rv x' b X Hs. apply csub_frame; [exact Hs|]. exact (task_reject_PK _ ci ci_state _ _ _ _ _ _ Hs X).
  - intros x w0 rq rv x' X Hs. apply csub_tasks; [exact Hs|]. unfold request_enabled in X. inv_binds X. inversion X; reflexivity.
Qed.

Lemma apply_updates_csub us : forall s w need s' need',
  TS (core_of s) -> apply_updates s w us need = Ok (s', need') -> csub (core_of s) (core_of s').
Proof.
  intros s w need s' need' Hs H. exact (apply_updates_rel CSR CSR_refl CSR_trans apply_one_csub us s w need s' need' H Hs).
Qed.

Lemma cget_upd c x id : cget (upd_task c x) id = if tid_eqb id (t_id x) then Some (ci x) else cget c id.
Proof. unfold cget, upd_task. cbn. rewrite find_set_task. destruct (tid_eqb id (t_id x)); reflexivity. Qed.

Lemma cget_upd_same c x t : find_task (c_tasks c) (t_id x) = Some t -> ci x = ci t -> forall id, cget (upd_task c x) id = cget c id.
Proof.
  intros Hf Hc id. rewrite cget_upd. destruct (tid_eqb id (t_id x)) eqn:E; [|reflexivity].
  apply tid_eqb_eq in E. subst id. unfold cget. rewrite Hf, Hc. reflexivity.
Qed.

Lemma retract_states_cget ids : forall c acc c' acc', retract_states c ids acc = Ok (c', acc') -> forall id, cget c' id = cget c id.
Proof.
  induction ids as [|i r IH]; cbn [retract_states]; intros c acc c' acc' H id; [inversion H; reflexivity|].
  apply bind_ok in H. destruct H as (t & Ht & H). apply get_task_find in Ht.
  destruct (find_task_some _ _ _ Ht) as [_ Hid].
  destruct (t_state t); try discriminate.
  apply bind_ok in H. destruct H as (wk & _ & H). apply bind_ok in H. destruct H as (wk' & _ & H).
  rewrite (IH _ _ _ _ H id).
  change (cget (upd_task c (with_state t (Retracting w))) id = cget c id).
  apply (cget_upd_same c _ t); [cbn; rewrite Hid; exact Ht | reflexivity].
Qed.

Lemma process_retracted_cget s r s' : process_retracted s r = Ok s' -> forall id, cget (core_of s') id = cget (core_of s) id.
Proof.
  unfold process_retracted. intros H id. destruct r; [inversion H; reflexivity|].
  apply bind_ok in H. destruct H as ([c' groups] & H1 & H). rewrite (send_all_core _ _ _ H). cbn.
  eapply retract_states_cget; exact H1.
Qed.

Definition cext (c c' : core) : Prop := forall id a, cget c id = Some a -> cget c' id = Some a.

Lemma register_deps_cget deps : forall c id kept count c' kept' count',
  register_deps c id deps kept count = (c', kept', count') -> (forall x, cget c' x = cget c x) /\ c_queues c' = c_queues c.
Proof.
  induction deps as [|d r IH]; cbn [register_deps]; intros c id kept count c' kept' count' H; [inversion H; split; reflexivity|].
  destruct (find_task (c_tasks c) d) as [dep|] eqn:Ef; [|eapply IH; exact H].
  destruct (find_task_some _ _ _ Ef) as [_ Hid].
  destruct (IH _ _ _ _ _ _ _ H) as [I1 I2]. split; [|exact I2].
  intros x. rewrite I1. apply (cget_upd_same c _ dep); [cbn; rewrite Hid; exact Ef | reflexivity].
Qed.

Lemma add_new_tasks_cext ts : forall c ret c' ret', add_new_tasks c ts ret = Ok (c', ret') -> cext c c'.
Proof.
  induction ts as [|t r IH]; cbn [add_new_tasks]; intros c ret c' ret' H; [inversion H; subst; intros id a Ha; exact Ha|].
  destruct (register_deps c (t_id t) (t_deps t) [] 0) as [[c1 kept] count] eqn:Er.
  destruct (register_deps_cget _ _ _ _ _ _ _ _ Er) as [E1 _].
  apply bind_ok in H. destruct H as ([c2 rt] & H2 & H).
  assert (E2 : c_tasks c2 = c_tasks c1).
  { destruct (N.eqb count 0); [|inversion H2; reflexivity]. inv_binds H2. inversion H2; reflexivity. }
  destruct (find_task (c_tasks c2) (t_id t)) eqn:Ef; [discriminate|].
  intros id a Ha. eapply IH; [exact H|]. rewrite cget_upd. cbn [t_id with_state with_deps].
  destruct (tid_eqb id (t_id t)) eqn:E.
  - apply tid_eqb_eq in E. subst id. rewrite <- E1 in Ha. unfold cget in Ha. rewrite <- E2, Ef in Ha. discriminate.
  - unfold cget. rewrite E2. rewrite <- E1 in Ha. exact Ha.
Qed.

Lemma on_new_tasks_cext s ts s' : on_new_tasks s ts = Ok s' -> cext (core_of s) (core_of s').
Proof.
  unfold on_new_tasks. intros H. destruct ts; [inversion H; subst; intros id a Ha; exact Ha|].
  apply bind_ok in H. destruct H as ([c' retracted] & Ha & H). apply bind_ok in H. destruct H as (s1 & Hr & H). inversion H; subst.
  intros id a Hx. change (cget (core_of s1) id = Some a). rewrite (process_retracted_cget _ _ _ Hr). cbn.
  eapply add_new_tasks_cext; eassumption.
Qed.

Definition is_run (st : tstate) : Prop := (exists w rv, st = Running w rv) \/ (exists ws, st = RunningMN ws).
Definition was_running (c : core) (id : tid) : Prop := exists t, find_task (c_tasks c) id = Some t /\ is_run (t_state t).

Definition CR (l : list tid) (fail : bool) (c c' : core) : Prop :=
  forall id a', cget c' id = Some a' -> exists a, cget c id = Some a /\ snd a' = snd a /\
    (fst a' = fst a \/ (fst a' = fst a + 1 /\ In id l /\ fail = true)).

Lemma CR_csub l f c c' : csub c c' -> CR l f c c'.
Proof. intros [_ A] id a' H. exists a'. split; [apply A; exact H | split; [reflexivity | left; reflexivity]]. Qed.

Lemma CR_weaken l l' f c c' : incl l l' -> CR l f c c' -> CR l' f c c'.
Proof.
  intros I R id a' H. destruct (R id a' H) as (a & A1 & A2 & A3). exists a. split; [exact A1 | split; [exact A2|]].
  destruct A3 as [A3|(A3 & A4 & A5)]; [left; exact A3 | right; split; [exact A3 | split; [apply I; exact A4 | exact A5]]].
Qed.

Lemma csub_CR l f c1 c2 c3 : csub c1 c2 -> CR l f c2 c3 -> CR l f c1 c3.
Proof.
  intros [_ A] R id a' H. destruct (R id a' H) as (a & A1 & A2 & A3). exists a. split; [apply A; exact A1 | split; [exact A2 | exact A3]].
Qed.

Lemma upd_task_TS c x t : TS c -> find_task (c_tasks c) (t_id x) = Some t -> TS (upd_task c x).
Proof. intros Hs Hf. unfold TS, upd_task. cbn. rewrite (set_task_ids _ _ _ Hs Hf). exact Hs. Qed.

Lemma lost_fail_running_CR l : forall s reason s',
  NoDup l -> TS (core_of s) -> lost_fail_running s reason l = Ok s' ->
  TS (core_of s') /\ CR l (reason_is_failure reason) (core_of s) (core_of s').
Proof.
  induction l as [|id r IH]; cbn [lost_fail_running]; intros s reason s' Hn Hs H.
  - inversion H; subst. split; [exact Hs|]. apply CR_csub. apply csub_tasks; auto.
  - inversion Hn as [|? ? Hni Hnr]; subst.
    assert (Hskip : lost_fail_running s reason r = Ok s' ->
              TS (core_of s') /\ CR (id :: r) (reason_is_failure reason) (core_of s) (core_of s')).
    { intros H0. destruct (IH _ _ _ Hnr Hs H0) as [A B]. split; [exact A|]. eapply CR_weaken; [|exact B]. apply incl_tl, incl_refl. }
    destruct (find_task (c_tasks (core_of s)) id) as [t|] eqn:Ef; [|apply Hskip; exact H].
    destruct (find_task_some _ _ _ Ef) as [_ Hid].
    (* the increment followed by whatever comes next *)
    assert (Hinc : reason_is_failure reason = true -> forall s2,
              csub (upd_task (core_of s) (with_crash t (t_crash t + 1))) (core_of s2) ->
              lost_fail_running s2 reason r = Ok s' ->
              TS (core_of s') /\ CR (id :: r) (reason_is_failure reason) (core_of s) (core_of s')).
    { intros Hf s2 S2 H2. destruct (IH _ _ _ Hnr (proj1 S2) H2) as [A B]. split; [exact A|].
      intros x a' Hx. destruct (B x a' Hx) as (a2 & B1 & B2 & B3).
      apply (proj2 S2) in B1. rewrite cget_upd in B1. cbn [t_id with_crash] in B1.
      destruct (tid_eqb x (t_id t)) eqn:E.
      - apply tid_eqb_eq in E. rewrite Hid in E. subst x. inversion B1; subst a2. cbn in *.
        exists (ci t). split; [unfold cget; rewrite Ef; reflexivity|]. split; [exact B2|].
        destruct B3 as [B3|(_ & B4 & _)]; [|contradiction].
        right. split; [exact B3 | split; [left; reflexivity | exact Hf]].
      - exists a2. split; [exact B1 | split; [exact B2|]].
        destruct B3 as [B3|(B3 & B4 & B5)]; [left; exact B3 | right; split; [exact B3 | split; [right; exact B4 | exact B5]]]. }
    assert (Hs1 : TS (upd_task (core_of s) (with_crash t (t_crash t + 1)))).
    { eapply upd_task_TS; [exact Hs | cbn; rewrite Hid; exact Ef]. }
    destruct (t_climit t) eqn:Ecl.
    + apply bind_ok in H. destruct H as (s1 & Hf & H).
      pose proof (task_failed_csub _ _ _ _ _ Hs Hf) as S1.
      destruct (IH _ _ _ Hnr (proj1 S1) H) as [A B]. split; [exact A|].
      eapply CR_weaken; [apply incl_tl, incl_refl|]. eapply csub_CR; eassumption.
    + destruct (reason_is_failure reason) eqn:Erf; [|apply Hskip; exact H].
      unfold increment_crash_counter in H. rewrite Ecl in H.
      destruct (N.leb n (t_crash (with_crash t (t_crash t + 1)))).
      * apply bind_ok in H. destruct H as (s1 & Hf & H).
        eapply (Hinc eq_refl s1); [|exact H].
        exact (task_failed_csub (st_core s (upd_task (core_of s) (with_crash t (t_crash t + 1)))) _ _ _ _ Hs1 Hf).
      * eapply (Hinc eq_refl); [|exact H]. apply csub_tasks; [exact Hs1 | reflexivity].
    + destruct (reason_is_failure reason) eqn:Erf; [|apply Hskip; exact H].
      unfold increment_crash_counter in H. rewrite Ecl in H.
      eapply (Hinc eq_refl); [|exact H]. apply csub_tasks; [exact Hs1 | reflexivity].
Qed.

(** The tasks handed to the crash rule were running, and each is listed once. *)
Definition Rinv (c0 c : core) : Prop :=
  forall id t', find_task (c_tasks c) id = Some t' -> is_run (t_state t') ->
    exists t, find_task (c_tasks c0) id = Some t /\ t_state t = t_state t'.

Lemma Rinv_upd c0 c x t :
  Rinv c0 c -> find_task (c_tasks c) (t_id x) = Some t -> (is_run (t_state x) -> t_state x = t_state t) -> Rinv c0 (upd_task c x).
Proof.
  intros R Hf Hx id t' Hf' Hr. unfold upd_task in Hf'. cbn in Hf'. rewrite find_set_task in Hf'.
  destruct (tid_eqb id (t_id x)) eqn:E.
  - inversion Hf'; subst t'. apply tid_eqb_eq in E. subst id. destruct (R _ _ Hf) as (t0 & A & B); [rewrite <- (Hx Hr); exact Hr|].
    exists t0. split; [exact A | rewrite B; symmetry; apply Hx; exact Hr].
  - apply R; assumption.
Qed.

Lemma not_run_waiting n : ~ is_run (Waiting n).
Proof. intros [(w & rv & H)|(ws & H)]; discriminate. Qed.

Lemma lost_prefilled_Rinv c0 l : forall c c', Rinv c0 c -> lost_prefilled c l = Ok c' -> Rinv c0 c'.
Proof.
  induction l as [|id r IH]; cbn [lost_prefilled]; intros c c' R H; [inversion H; subst; exact R|].
  apply bind_ok in H. destruct H as (t & Ht & H). apply get_task_find in Ht. destruct (find_task_some _ _ _ Ht) as [_ Hid].
  apply bind_ok in H. destruct H as (q & _ & H). apply bind_ok in H. destruct H as (q' & _ & H).
  eapply IH; [|exact H].
  change (Rinv c0 (upd_task c (with_state (with_inst t (t_inst t + 1)) (Waiting 0)))) .
  eapply Rinv_upd; [exact R | cbn; rewrite Hid; exact Ht | intros Hr; exfalso; exact (not_run_waiting _ Hr)].
Qed.

Lemma lost_assigned_running c0 l : forall c running ret c' running' ret',
  Rinv c0 c -> NoDup running ->
  (forall x, In x running -> was_running c0 x /\ forall t, find_task (c_tasks c) x = Some t -> ~ is_run (t_state t)) ->
  lost_assigned c l running ret = Ok (c', running', ret') ->
  NoDup running' /\ forall x, In x running' -> was_running c0 x.
Proof.
  induction l as [|id r IH]; cbn [lost_assigned]; intros c running ret c' running' ret' R Hn Hr H.
  - inversion H; subst. split; [exact Hn | intros x Hx; apply Hr; exact Hx].
  - apply bind_ok in H. destruct H as (t & Ht & H). apply get_task_find in Ht. destruct (find_task_some _ _ _ Ht) as [_ Hid].
    apply bind_ok in H. destruct H as ([[c1 t1] running1] & H1 & H). apply bind_ok in H. destruct H as ([qs rt] & _ & H).
    assert (Hc : c_tasks c1 = c_tasks c /\ t_id t1 = t_id t /\ ~ is_run (t_state t1) /\
                 (running1 = running \/ (running1 = running ++ [id] /\ is_run (t_state t)))).
    { destruct (t_state t) eqn:Est; try (inversion H1; subst; repeat split; try reflexivity; [apply not_run_waiting | left; reflexivity]).
      - destruct (find_redirect _ id); inversion H1; subst. repeat split; try reflexivity; [|left; reflexivity].
        rewrite Est. intros [(w0 & rv & E)|(ws & E)]; discriminate.
      - inversion H1; subst. repeat split; try reflexivity; [apply not_run_waiting|].
        right. split; [reflexivity|]. left. eauto. }
    destruct Hc as (Et & Ei & Hnr & Hrun).
    set (c2 := upd_task c1 (with_inst t1 (t_inst t1 + 1))) in *.
    assert (R1 : Rinv c0 c1) by (intros x t' Hx; rewrite Et in Hx; apply R; exact Hx).
    assert (R2 : Rinv c0 c2).
    { eapply Rinv_upd; [exact R1 | cbn; rewrite Ei, Hid, Et; exact Ht | intros Hx; exfalso; apply Hnr; exact Hx]. }
    assert (Hfind2 : forall x, find_task (c_tasks c2) x = if tid_eqb x id then Some (with_inst t1 (t_inst t1 + 1)) else find_task (c_tasks c) x).
    { intros x. unfold c2, upd_task. cbn. rewrite find_set_task. cbn. rewrite Ei, Hid, Et. reflexivity. }
    eapply (IH (with_queues c2 qs)); [exact R2 | | | exact H].
    + destruct Hrun as [->|[-> Hrt]]; [exact Hn|].
      rewrite <- (app_nil_r (running ++ [id])), <- app_assoc. cbn.
      (* id is running now, the collected ones are not *)
      assert (~ In id running) as Hni by (intros Hin; destruct (Hr _ Hin) as [_ Hx]; exact (Hx _ Ht Hrt)).
      clear -Hn Hni. induction running as [|h tl IHr]; cbn; [constructor; [intros [] | constructor]|].
      inversion Hn; subst. constructor.
      * rewrite in_app_iff. cbn. intros [X|[X|[]]]; [contradiction | subst; apply Hni; left; reflexivity].
      * apply IHr; [assumption | intros X; apply Hni; right; exact X].
    + intros x Hx. cbn [c_tasks with_queues]. rewrite Hfind2.
      destruct Hrun as [->|[-> Hrt]].
      * destruct (Hr _ Hx) as [A B]. split; [exact A|]. intros tx. destruct (tid_eqb x id); [intros E; inversion E; subst; exact Hnr | apply B].
      * apply in_app_iff in Hx. destruct Hx as [Hx|[<-|[]]].
        -- destruct (Hr _ Hx) as [A B]. split; [exact A|]. intros tx. destruct (tid_eqb x id); [intros E; inversion E; subst; exact Hnr | apply B].
        -- split.
           ++ destruct (R _ _ Ht Hrt) as (t0 & A & B). exists t0. split; [exact A | rewrite B; exact Hrt].
           ++ intros tx. rewrite tid_eqb_refl. intros E; inversion E; subst; exact Hnr.
Qed.

Definition LR (fail : bool) (c c' : core) : Prop :=
  forall id a', cget c' id = Some a' -> exists a, cget c id = Some a /\ snd a' = snd a /\
    (fst a' = fst a \/ (fst a' = fst a + 1 /\ fail = true /\ was_running c id)).

Lemma Rinv_refl c : Rinv c c.
Proof. intros id t' H _. eauto. Qed.

Lemma on_remove_worker_LR s w reason a p t s' :
  TS (core_of s) -> on_remove_worker s w reason a p t = Ok s' -> LR (reason_is_failure reason) (core_of s) (core_of s').
Proof.
  intros Hs H. unfold on_remove_worker in H.
  destruct (find_worker _ w) as [wk|]; [|discriminate].
  apply bind_ok in H. destruct H as ([[c2 running] retracted] & Hr & H).
  set (c0 := with_workers (core_of s) (del_worker (c_workers (core_of s)) w)) in *.
  assert (Hs0 : TS c0) by exact Hs.
  assert (E2 : ckeys c2 = ckeys (core_of s) /\ NoDup running /\ forall x, In x running -> was_running (core_of s) x).
  { destruct (w_assign wk).
    - destruct (negb _); [discriminate|]. apply bind_ok in Hr. destruct Hr as (c1 & Hp & Hr).
      pose proof (lost_prefilled_pframe _ ci ci_state ci_inst _ _ _ Hs0 Hp) as E1.
      split; [rewrite (lost_assigned_pframe _ ci ci_state ci_inst _ _ _ _ _ _ _ (PS_keys _ ci _ _ E1 Hs0) Hr); exact E1|].
      eapply (lost_assigned_running c0 _ c1 [] []); [eapply lost_prefilled_Rinv; [apply Rinv_refl | exact Hp] | constructor | intros x [] | exact Hr].
    - apply bind_ok in Hr. destruct Hr as (tk & Ht & Hr). apply get_task_find in Ht.
      destruct (t_state tk) eqn:Est; try discriminate. destruct ws as [|w0 rest]; [discriminate|].
      destruct (N.eqb w w0).
      + apply bind_ok in Hr. destruct Hr as (c1 & Hc1 & Hr). apply bind_ok in Hr. destruct Hr as ([qs ret] & _ & Hr).
        inversion Hr; subst.
        pose proof (reset_mn_all_tasks _ _ _ Hc1) as T1. split; [|split].
        * change (ckeys (upd_task c1 (with_inst (with_state tk (Waiting 0)) (t_inst tk + 1))) = ckeys (core_of s)).
          transitivity (ckeys c1); [|unfold pkeys; rewrite T1; reflexivity].
          apply (upd_task_pframe _ ci c1 t0 tk); [unfold TS; rewrite T1; exact Hs0 | rewrite T1; exact Ht | reflexivity | reflexivity].
        * constructor; [intros [] | constructor].
        * intros x [<-|[]]. exists tk. split; [exact Ht|]. right. rewrite Est. eauto.
      + inversion Hr; subst. split; [|split; [constructor | intros x []]].
        apply (upd_task_pframe _ ci c0 t0 tk); [exact Hs0 | exact Ht | reflexivity | reflexivity]. }
  destruct E2 as (E2 & Hnd & Hrun).
  destruct (negb (perm_of_set t _)); [discriminate|].
  apply bind_ok in H. destruct H as (s3 & H3 & H). apply bind_ok in H. destruct H as (s4 & H4 & H).
  apply bind_ok in H. destruct H as (s6 & H6 & H). apply bind_ok in H. destruct H as (s7 & H7 & H). inversion H; subst.
  match type of H3 with lost_retracting ?sx _ _ = _ => set (s2 := sx) in * end.
  assert (Hs2 : TS (core_of s2)) by (eapply PS_keys; [exact E2 | exact Hs]).
  pose proof (lost_retracting_PK _ ci ci_state ci_inst _ _ _ _ Hs2 H3) as K3. unfold PK in K3.
  assert (Hs3 : TS (core_of s3)) by (eapply PS_keys; [exact K3 | exact Hs2]).
  pose proof (process_retracted_PK _ ci ci_state _ _ _ Hs3 H4) as K4. unfold PK in K4.
  assert (Hs4 : TS (core_of s4)) by (eapply PS_keys; [exact K4 | exact Hs3]).
  destruct (process_worker_lost_active _ _ _ _ _ H6) as [C6 _]. unfold core_same in C6.
  assert (K6 : ckeys (core_of s6) = ckeys (core_of s)).
  { rewrite C6. change (ckeys (core_of s4) = ckeys (core_of s)). rewrite K4, K3. exact E2. }
  assert (Hs6 : TS (core_of s6)) by (eapply PS_keys; [exact K6 | exact Hs]).
  destruct (lost_fail_running_CR _ _ _ _ Hnd Hs6 H7) as [_ R7].
  intros id a' Ha. change (cget (core_of s7) id = Some a') in Ha.
  destruct (R7 id a' Ha) as (a0 & A1 & A2 & A3). rewrite (cframe _ _ K6) in A1.
  exists a0. split; [exact A1 | split; [exact A2|]].
  destruct A3 as [A3|(A3 & A4 & A5)]; [left; exact A3 | right; split; [exact A3 | split; [exact A5 | apply Hrun; exact A4]]].
Qed.


Lemma cext_tasks c c' : c_tasks c' = c_tasks c -> cext c c'.
Proof. intros E id a. unfold cget. rewrite E. auto. Qed.
Lemma cext_trans c1 c2 c3 : cext c1 c2 -> cext c2 c3 -> cext c1 c3.
Proof. intros A B id a H. apply B, A, H. Qed.

(** Both submit handlers only add tasks ([SubmitPass] of [StepShape]: the relation looks at the core only). *)
Lemma get_or_create_rq_cext s r : cext (core_of s) (core_of (fst (get_or_create_rq s r))).
Proof. apply cext_tasks, get_or_create_rq_tasks. Qed.

Lemma handle_submit_array_cext s jobsel ids entries rq prio cl tlim mf s' :
  handle_submit_array s jobsel ids entries rq prio cl tlim mf = Ok s' -> cext (core_of s) (core_of s').
Proof.
  apply (handle_submit_array_pass (fun x x' => cext (core_of x) (core_of x'))); [intros a b c; apply cext_trans | | exact get_or_create_rq_cext | exact on_new_tasks_cext].
  intros x x' E _. apply cext_tasks. rewrite E. reflexivity.
Qed.

Lemma fold_rqs_tasks rqs : forall s l s4 rqis,
  fold_left (fun acc r => let '(s, l) := acc in let '(s', i) := get_or_create_rq s r in (s', l ++ [i])) rqs (s, l) = (s4, rqis) ->
  c_tasks (core_of s4) = c_tasks (core_of s).
Proof.
  induction rqs as [|r rest IH]; cbn [fold_left]; intros s l s4 rqis H; [inversion H; reflexivity|].
  destruct (get_or_create_rq s r) as [s1 i] eqn:E. rewrite (IH _ _ _ _ H).
  pose proof (get_or_create_rq_tasks s r) as T. rewrite E in T. exact T.
Qed.

Lemma handle_submit_graph_cext s jobsel rqs ts mf s' :
  handle_submit_graph s jobsel rqs ts mf = Ok s' -> cext (core_of s) (core_of s').
Proof.
  apply (handle_submit_graph_pass (fun x x' => cext (core_of x) (core_of x'))); [intros a b c; apply cext_trans | | exact get_or_create_rq_cext | exact on_new_tasks_cext].
  intros x x' E _. apply cext_tasks. rewrite E. reflexivity.
Qed.

Definition lost_failure (o : op) : bool :=
  match o with OpLost _ reason _ _ _ => reason_is_failure reason | _ => false end.

Lemma LR_csub f c c' : csub c c' -> LR f c c'.
Proof. intros [_ A] id a' H. exists a'. split; [apply A; exact H | split; [reflexivity | left; reflexivity]]. Qed.

Theorem crash_rule_step s o s' outs :
  TS (s_core s) -> step s o = Ok (s', outs) ->
  forall id t t', find_task (c_tasks (s_core s)) id = Some t -> find_task (c_tasks (s_core s')) id = Some t' ->
    t_climit t' = t_climit t /\
    (t_crash t' = t_crash t \/ (t_crash t' = t_crash t + 1 /\ lost_failure o = true /\ is_run (t_state t))).
Proof.
  intros Hs H id t t' Hf Hf'.
  (* every operation is one of: survivors keep their info / old tasks keep their info / the crash rule *)
  assert (Hcases : csub (s_core s) (s_core s') \/ cext (s_core s) (s_core s') \/ LR (lost_failure o) (s_core s) (s_core s')).
  { assert (Hrest : match o with OpLost _ _ _ _ _ => False | _ => True end ->
              csub (s_core s) (s_core s') \/ cext (s_core s) (s_core s')).
    { intros Ho. revert Hs.
      refine (step_walk (fun x x' => TS (core_of x) -> csub (core_of x) (core_of x') \/ cext (core_of x) (core_of x'))
                (fun o => match o with OpLost _ _ _ _ _ => False | _ => True end)
                _ _ _ _ _ _ _ _ _ _ _ _ _ _ _ _ s o s' outs Ho H);
        try (intros; right; apply cext_tasks; reflexivity).
      - intros s0 rs g s1 _ X _. right. apply cext_tasks. unfold on_new_worker in X. inversion X; subst. reflexivity.
      - intros s0 w r a p t0 pw s1 [].
      - intros s0 job ids entries rq prio cl tlim mf s1 _ X _. right. exact (handle_submit_array_cext _ _ _ _ _ _ _ _ _ _ X).
      - intros s0 job rqs ts mf s1 _ X _. right. exact (handle_submit_graph_cext _ _ _ _ _ _ X).
      - intros s0 mf s1 _ X _. right. apply cext_tasks. unfold handle_open in X. inversion X; subst. reflexivity.
      - intros s0 j s1 _ X _. right. apply cext_tasks. unfold handle_close in X.
        destruct (find_job _ j) as [jb|]; [|inversion X; subst; reflexivity].
        destruct (j_open jb); [|inversion X; subst; reflexivity].
        apply bind_ok in X. destruct X as (s2 & H1 & X). inversion X; subst.
        destruct (check_termination_jt _ _ _ H1) as [C1 _]. unfold core_same in C1.
        change (c_tasks (core_of s2) = c_tasks (core_of (s0, []))). rewrite C1. reflexivity.
      - intros s0 j s1 _ X Hs0. left. refine (handle_cancel_rel CSR CSR_trans _ _ _ _ _ _ X Hs0).
        + intros x r Hx. apply csub_tasks; [exact Hx | reflexivity].
        + intros x ids x' Y Hx. exact (on_cancel_tasks_csub _ _ _ Hx Y).
        + intros x jid ids x' Y Hx. apply csub_tasks; [exact Hx|].
          destruct (set_cancel_state_active _ _ _ _ Y) as [C _]. unfold core_same in C. rewrite C. reflexivity.
      - intros s0 j s1 _ X _. right. apply cext_tasks. unfold handle_forget in X.
        destruct (find_job _ j) as [jb|]; [|inversion X; subst; reflexivity].
        apply bind_ok in X. destruct X as (na & _ & X). destruct (negb (j_open jb) && na); inversion X; subst; reflexivity.
      - intros s0 w p m rest s1 _ _ _ X Hs0. left. destruct m.
        + refine (on_task_update_rel CSR CSR_refl CSR_trans apply_one_csub _ w us s1 _ X Hs0).
          intros x Hx. apply csub_tasks; [exact Hx | reflexivity].
        + apply csub_frame; [exact Hs0|].
          match type of X with on_retract_response ?x _ _ = _ => exact (on_retract_response_PK _ ci ci_state x _ _ _ Hs0 X) end.
      - intros s0 sol s1 _ _ X Hs0. left. apply csub_frame; [exact Hs0 | exact (run_scheduling_PK _ ci ci_state _ _ _ Hs0 X)]. }
    destruct o; try (destruct (Hrest I) as [A|A]; [left; exact A | right; left; exact A]).
    (* the loss of a worker: the crash rule *)
    right. right. cbn [step] in H. destruct (find_proc _ w); [|discriminate].
    exact (on_remove_worker_LR (s, []) _ _ _ _ _ (s', outs) Hs H). }
  assert (Ha : cget (s_core s) id = Some (ci t)) by (unfold cget; rewrite Hf; reflexivity).
  assert (Ha' : cget (s_core s') id = Some (ci t')) by (unfold cget; rewrite Hf'; reflexivity).
  destruct Hcases as [[_ S]|[S|S]].
  - apply S in Ha'. rewrite Ha in Ha'. inversion Ha'. split; [congruence | left; congruence].
  - apply S in Ha. rewrite Ha' in Ha. inversion Ha. split; [congruence | left; congruence].
  - destruct (S _ _ Ha') as (a0 & A1 & A2 & A3). rewrite Ha in A1. inversion A1; subst a0. cbn in A2, A3.
    split; [exact A2|]. destruct A3 as [A3|(A3 & A4 & (t0 & B1 & B2))]; [left; exact A3|].
    right. split; [exact A3 | split; [exact A4|]]. rewrite Hf in B1. inversion B1; subst. exact B2.
Qed.

From HQ Require Import Cluster.ProofsFinal Cluster.BijFinal.

Theorem crash_counter_rule ops o reserve maxfill s outs s' outs' :
  Forall op_wf ops -> run (init_sys reserve maxfill) ops = Ok (s, outs) -> step s o = Ok (s', outs') ->
  forall id t t', find_task (c_tasks (s_core s)) id = Some t -> find_task (c_tasks (s_core s')) id = Some t' ->
    t_climit t' = t_climit t /\
    (t_crash t' = t_crash t \/ (t_crash t' = t_crash t + 1 /\ lost_failure o = true /\ is_run (t_state t))).
Proof.
  intros Hwf Hr Hst.
  assert (HC0 : CB (init_sys reserve maxfill, [])).
  { constructor; [constructor | intros id cs x [] | ]. intros x. split; [intros [] | intros (l & Hl & _); discriminate]. }
  assert (Hok0 : HOK (s_hq (init_sys reserve maxfill))) by (intros j []).
  assert (F0 : fresh (init_sys reserve maxfill, [])) by (intros j []).
  pose proof (run_CB _ _ _ _ Hok0 F0 Hwf HC0 Hr) as HC.
  eapply crash_rule_step; [|exact Hst]. apply TS_CS. exact (cb_s _ HC).
Qed.

(** Non-vacuity: a task running on a worker that is lost for a failure reason. *)
Definition crash_rq : rqdef := mkRq 0 [10000; 0; 0].
Definition crash_ops : list op :=
  [OpConnect [20000; 0; 0] 0;
   OpSubmit None [] None crash_rq 0%Z (CMax 3) false None;
   OpSched (mkSol [(0, 0, [(1, 1)])] [] [1] []);
   OpDDown 1 []; OpDDown 1 []; OpDUp 1].
Definition crash_last : op := OpLost 1 1 [(1, 0)] [] [(1, 0)].

Lemma crash_example : Forall op_wf crash_ops /\ exists s outs s' outs' t t',
  run (init_sys 0 2) crash_ops = Ok (s, outs) /\ step s crash_last = Ok (s', outs') /\
  find_task (c_tasks (s_core s)) (1, 0) = Some t /\ find_task (c_tasks (s_core s')) (1, 0) = Some t' /\
  t_state t = Running 1 0 /\ t_crash t = 0 /\ t_crash t' = 1.
Proof.
  split; [repeat constructor|].
  do 6 eexists. split; [vm_compute; reflexivity|]. split; [vm_compute; reflexivity|].
  split; [vm_compute; reflexivity|]. split; [vm_compute; reflexivity|]. repeat split; reflexivity.
Qed.
