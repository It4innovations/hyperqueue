(** Protocol invariant, part 5: the worker-side operations of [Sys.step] ([OpDDown], [OpEnd],
    [OpFailNext], [OpTimer]) preserve [PROTO] and never panic - from [PROTO] alone. *)
From HQ Require Import Base.Prelude Cluster.Types Cluster.Core Cluster.Reactor Cluster.Worker Cluster.Server Cluster.Sys Cluster.ProofsMore Cluster.ProofsWorker Cluster.NoPanicU0 Cluster.NoPanicU1 Cluster.NoPanicU2 Cluster.NoPanicU4.
From HQ Require Import Cluster.ModelFacts.
From Coq Require Import ZArith Lia Sorting.Sorted.
Local Open Scope N_scope.

Definition worker_op (o : op) : Prop :=
  match o with OpDDown _ _ | OpEnd _ _ _ | OpFailNext _ _ | OpTimer => True | _ => False end.

Definition Seen (s : sys) (x : tid) : Prop := seen (s_hq s) x = true.

Lemma rq_eqb_eq a b : rq_eqb a b = true <-> a = b.
Proof.
  unfold rq_eqb. rewrite andb_true_iff, N.eqb_eq. destruct a as [na ra], b as [nb rb]. cbn [rq_nodes rq_res].
  assert (H : forall x y, (fix eq (x y : list N) := match x, y with
                                                    | [], [] => true
                                                    | h :: t, h' :: t' => N.eqb h h' && eq t t'
                                                    | _, _ => false
                                                    end) x y = true <-> x = y).
  { induction x as [|h t IH]; intros [|h' t']; try (split; [discriminate | congruence]); [tauto|].
    rewrite andb_true_iff, N.eqb_eq, IH. split; [intros [-> ->]; reflexivity | intros E; inversion E; auto]. }
  rewrite H. split; [intros [-> ->]; reflexivity | intros E; inversion E; auto].
Qed.
Lemma rqs_eqb_eq a : forall b, rqs_eqb a b = true <-> a = b.
Proof.
  induction a as [|x a IH]; intros [|y b]; cbn [rqs_eqb]; try (split; [discriminate | congruence]); [tauto|].
  rewrite andb_true_iff, rq_eqb_eq, IH. split; [intros [-> ->]; reflexivity | intros E; inversion E; auto].
Qed.

Lemma rqs_ok_prefix c p : rqs_ok c p = true -> forall i r, nth_error (p_rqs p) i = Some r -> nth_error (c_rqs c) i = Some r.
Proof.
  unfold rqs_ok. rewrite andb_true_iff, rqs_eqb_eq. intros [_ <-] i r H. rewrite nth_error_app1; [exact H|].
  apply nth_error_Some. congruence.
Qed.

Lemma rqs_ok_eq c p p' : p_down p' = p_down p -> p_rqs p' = p_rqs p -> rqs_ok c p' = rqs_ok c p.
Proof. unfold rqs_ok. intros -> ->. reflexivity. Qed.

Lemma rqs_ok_consume c p m rest p' : rqs_ok c p = true -> p_down p = m :: rest -> p_down p' = rest ->
  match m with DNewRq _ def => p_rqs p' = p_rqs p ++ [def] | _ => p_rqs p' = p_rqs p end ->
  rqs_ok c p' = true.
Proof.
  unfold rqs_ok. intros H Ed -> Hr. rewrite Ed in H. apply andb_true_iff in H. destruct H as [Hd Hq].
  destruct m as [ts|ids|ids|w0|w0|rq def|]; rewrite Hr; cbn [down_ok newrq_defs flat_map app] in Hd, Hq;
    try (rewrite Hd; exact Hq); apply andb_true_iff in Hd; destruct Hd as [_ Hd].
  - rewrite Hd. exact Hq.
  - rewrite app_length, Nat2N.inj_add. cbn [length]. change (N.of_nat 1) with 1. rewrite Hd, <- app_assoc. exact Hq.
Qed.

Lemma PROTO_POK s w p : PROTO s -> find_proc (s_procs s) w = Some p -> POK s w (Seen s) p (fun x => ditems x (p_down p)).
Proof.
  intros HP Hp. split; [|split].
  - intros x t Ht. cbn [flat_map]. rewrite app_nil_r. eapply pr_words; eassumption.
  - apply local_ok_LOK. eapply pr_local; eassumption.
  - intros x [Hx|[Hx|[]]]; apply (pr_seen _ HP _ _ _ Hp); unfold proc_tids; rewrite !in_app_iff; auto.
Qed.

Lemma seen_down s w p : PROTO s -> find_proc (s_procs s) w = Some p -> forall x, In x (flat_map dmsg_tids (p_down p)) -> Seen s x.
Proof. intros HP Hp x Hx. apply (pr_seen _ HP _ _ _ Hp). unfold proc_tids. rewrite !in_app_iff. auto. Qed.
Lemma seen_up s w p : PROTO s -> find_proc (s_procs s) w = Some p -> forall x, In x (flat_map umsg_tids (p_up p)) -> Seen s x.
Proof. intros HP Hp x Hx. apply (pr_seen _ HP _ _ _ Hp). unfold proc_tids. rewrite !in_app_iff. auto. Qed.

Lemma PROTO_set_proc s w p p' d :
  PROTO s -> find_proc (s_procs s) w = Some p -> p_id p' = p_id p -> p_down p' = d ->
  POK s w (Seen s) p' (fun x => ditems x d) ->
  rqs_ok (s_core s) p' = true ->
  (forall x, In x (flat_map umsg_tids (p_up p')) -> In x (flat_map umsg_tids (p_up p)) \/ Seen s x) ->
  (forall x, In x (flat_map dmsg_tids d) -> Seen s x) ->
  PROTO (with_procs s (set_proc (s_procs s) p')).
Proof.
  intros HP Hp Hid <- (HW & HL & HS) Hrq Hup Hdn. destruct (find_proc_some _ _ _ Hp) as [_ Hw]. rewrite Hw in Hid.
  pose proof (seen_up _ _ _ HP Hp) as Su.
  (* a process of the new list is [p'], at [w], or a process of the old list *)
  assert (Hf : forall w' p0, find_proc (set_proc (s_procs s) p') w' = Some p0 ->
                 (w' = w /\ p0 = p') \/ find_proc (s_procs s) w' = Some p0).
  { intros w' p0 Hf. rewrite find_set_proc, Hid in Hf. destruct (N.eqb w' w) eqn:E; [left | right; exact Hf].
    apply N.eqb_eq in E. split; congruence. }
  destruct HP as [H9 H1 H2 H3 H4 H5 H6 H7 R1 R2].
  constructor; cbn [with_procs s_procs s_core s_hq]; try assumption.
  - apply set_proc_sorted. exact H9.
  - intros w' p0 x t Hf' Ht. destruct (Hf _ _ Hf') as [[-> ->]|Ho]; [|eapply H1; eassumption].
    pose proof (HW x t Ht) as Hl. cbn [flat_map] in Hl. rewrite app_nil_r in Hl. exact Hl.
  - intros w' p0 Hf'. destruct (Hf _ _ Hf') as [[_ ->]|Ho]; [exact Hrq | eapply H2; eassumption].
  - intros w' p0 Hf'. destruct (Hf _ _ Hf') as [[_ ->]|Ho]; [apply local_ok_LOK; exact HL | eapply H3; eassumption].
  - intros w' p0 x Hf' Hx. destruct (Hf _ _ Hf') as [[_ ->]|Ho]; [|eapply H4; eassumption].
    unfold proc_tids in Hx. rewrite !in_app_iff in Hx.
    destruct Hx as [Hx|[Hx|[Hx|Hx]]]; [apply Hdn; exact Hx | | apply HS; left; exact Hx | apply HS; right; left; exact Hx].
    destruct (Hup x Hx) as [Hx'|Hx']; [apply Su; exact Hx' | exact Hx'].
Qed.

Lemma PROTO_handled s w p m rest p' :
  PROTO s -> find_proc (s_procs s) w = Some p -> p_down p = m :: rest ->
  POK s w (Seen s) p' (fun x => ditems x rest) ->
  (forall x, In x (flat_map umsg_tids (p_up p')) -> In x (flat_map umsg_tids (p_up p)) \/ Seen s x) ->
  p_down p' = rest -> p_id p' = p_id p ->
  match m with DNewRq _ def => p_rqs p' = p_rqs p ++ [def] | _ => p_rqs p' = p_rqs p end ->
  PROTO (with_procs s (set_proc (s_procs s) p')).
Proof.
  intros HP Hp Ed HPOK Hup Ed' Hid Hr. apply (PROTO_set_proc s w p p' rest); try assumption.
  - eapply rqs_ok_consume; try eassumption. eapply pr_rqs; eassumption.
  - intros x Hx. apply (seen_down _ _ _ HP Hp). rewrite Ed. cbn [flat_map]. apply in_or_app. right. exact Hx.
Qed.

Lemma process_message_PROTO s w p m rest order :
  PROTO s -> find_proc (s_procs s) w = Some p -> p_down p = m :: rest ->
  (exists p' ls, process_worker_message (wp_down p rest) m order = Ok (p', ls)
                 /\ PROTO (with_procs s (set_proc (s_procs s) p')))
  \/ process_worker_message (wp_down p rest) m order = Disabled.
Proof.
  intros HP Hp Ed. set (q := wp_down p rest).
  pose proof (pr_rqs _ HP _ _ Hp) as Hrq. unfold rqs_ok in Hrq. rewrite Ed in Hrq. apply andb_true_iff in Hrq. destruct Hrq as [Hd _].
  assert (HPOK : POK s w (Seen s) q (fun x => ditems_msg x m ++ ditems x rest)).
  { apply (POK_eq _ _ _ p q (fun x => ditems x (p_down p))); try reflexivity; [|exact (PROTO_POK s w p HP Hp)].
    intros x. rewrite Ed. reflexivity. }
  (* messages that name no task and leave the maps alone *)
  assert (Hplain : (forall x, ditems_msg x m = []) -> forall p', p_up p' = p_up q -> p_running p' = p_running q ->
            p_backlog p' = p_backlog q -> p_futures p' = p_futures q -> p_alloc p' = p_alloc q -> p_down p' = rest -> p_id p' = p_id p ->
            match m with DNewRq _ def => p_rqs p' = p_rqs p ++ [def] | _ => p_rqs p' = p_rqs p end ->
            PROTO (with_procs s (set_proc (s_procs s) p'))).
  { intros Hnil p' E1 E2 E3 E4 E5 Ed' Hid Hr. apply (PROTO_handled s w p m rest p' HP Hp Ed); try assumption.
    - eapply POK_eq; [exact E1 | exact E2 | exact E3 | exact E4 | exact E5 | | exact HPOK]. intros x. cbv beta. rewrite Hnil. reflexivity.
    - intros x Hx. left. rewrite E1 in Hx. exact Hx. }
  destruct m as [ts|ids|ids|w0|w0|rq def|]; cbn [process_worker_message].
  4, 5, 7: (* NewWorker, LostWorker, Stop *) left; exists q, []; split; [reflexivity | apply Hplain; reflexivity].
  - (* ComputeTasks *)
    left. cbn [down_ok] in Hd. apply andb_true_iff in Hd. destruct Hd as [Hct _]. rewrite forallb_forall in Hct.
    destruct HPOK as (HW & HL & HS).
    destruct (compute_loop_inv s w (Seen s) ts q [] [] (fun x => ditems x rest) HW HL HS) as (q' & ups' & ls' & E & B1 & B2 & B3 & (F1 & F2 & F3 & F4)).
    + intros ct Hc. apply (seen_down _ _ _ HP Hp). rewrite Ed. cbn [flat_map dmsg_tids]. apply in_or_app. left. apply in_map. exact Hc.
    + exact Hct.
    + exact (rqs_ok_prefix _ _ (pr_rqs _ HP _ _ Hp)).
    + rewrite E. cbn [bind].
      destruct (POK_send s w (Seen s) q' ups' _ B1 B2 B3) as (D1 & D2 & D3 & D4 & D5). cbv zeta in D1, D2, D3, D4, D5.
      exists (match ups' with [] => q' | _ => send_up q' (UUpdates ups') end), ls'. split; [destruct ups'; reflexivity|].
      apply (PROTO_handled s w p _ rest _ HP Hp Ed D1).
      * intros x Hx. destruct (D2 x Hx) as [H|H]; [left; rewrite F1 in H; exact H | right; exact H].
      * rewrite D3. exact F2.
      * rewrite D5. exact F4.
      * rewrite D4. exact F3.
  - (* RetractTasks *)
    destruct (negb (n_perm order (map fst (p_backlog q)))) eqn:Eperm; [right; reflexivity|]. left. apply negb_false_iff in Eperm.
    destruct (retract_from (p_backlog q) order ids []) as [b out] eqn:Er.
    destruct (retract_inv s w (Seen s) q ids order b out (fun x => ditems x rest) HPOK Eperm Er) as (D1 & D2). cbv zeta in D1, D2.
    exists (match ids with [] => wp_backlog q b | _ => send_up (wp_backlog q b) (URetractResponse out) end), [].
    split; [destruct ids; reflexivity|].
    apply (PROTO_handled s w p _ rest _ HP Hp Ed D1 D2); destruct ids; reflexivity.
  - (* CancelTasks *)
    left. destruct (cancel_inv s w (Seen s) ids q (fun x => ditems x rest) HPOK) as (D1 & F1 & F2 & F3 & F4). cbv zeta in D1, F1, F2, F3, F4.
    exists (fold_left cancel_task ids q), []. split; [reflexivity|].
    apply (PROTO_handled s w p _ rest _ HP Hp Ed D1); [|exact F2 | exact F4 | exact F3].
    intros x Hx. left. rewrite F1 in Hx. exact Hx.
  - (* NewRq *)
    left. cbn [down_ok] in Hd. apply andb_true_iff in Hd. destruct Hd as [Hn _]. cbn [q p_rqs wp_down wp_upd]. rewrite Hn.
    exists (wp_rqs q (p_rqs q ++ [def])), []. split; [reflexivity | apply Hplain; reflexivity].
Qed.

Lemma task_end_PROTO s w p t how :
  PROTO s -> find_proc (s_procs s) w = Some p ->
  (exists p' ls, task_end p t how = Ok (p', ls) /\ PROTO (with_procs s (set_proc (s_procs s) p')))
  \/ task_end p t how = Disabled.
Proof.
  intros HP Hp.
  destruct (fu_find (p_futures p) t) as [stop|] eqn:Ef; [|right; unfold task_end; rewrite Ef; reflexivity]. left.
  destruct (task_end_inv s w (Seen s) p t how _ (PROTO_POK s w p HP Hp)) as (p' & ls & E & D1 & D2 & F2 & F3 & F4); [congruence|].
  exists p', ls. split; [exact E|].
  apply (PROTO_set_proc s w p p' (p_down p) HP Hp F4 F2 D1); [|exact D2 | exact (seen_down s w p HP Hp)].
  rewrite (rqs_ok_eq _ p p' F2 F3). eapply pr_rqs; eassumption.
Qed.

Lemma PROTO_same_proc s w p p' :
  PROTO s -> find_proc (s_procs s) w = Some p ->
  p_id p' = p_id p -> p_up p' = p_up p -> p_down p' = p_down p -> p_rqs p' = p_rqs p ->
  p_running p' = p_running p -> p_backlog p' = p_backlog p -> p_futures p' = p_futures p -> p_alloc p' = p_alloc p ->
  PROTO (with_procs s (set_proc (s_procs s) p')).
Proof.
  intros HP Hp E0 E1 E2 E3 E4 E5 E6 E7. apply (PROTO_set_proc s w p p' (p_down p) HP Hp E0 E2).
  - exact (POK_eq _ _ _ p p' _ _ E1 E4 E5 E6 E7 (fun _ => eq_refl) (PROTO_POK s w p HP Hp)).
  - rewrite (rqs_ok_eq _ p p' E2 E3). eapply pr_rqs; eassumption.
  - intros x Hx. left. rewrite <- E1. exact Hx.
  - exact (seen_down s w p HP Hp).
Qed.

Lemma timers_PROTO s : PROTO s -> PROTO (with_procs s (map (fun p => fold_left timer_fire (p_timers p) p) (s_procs s))).
Proof.
  intros HP. set (f := fun p => fold_left timer_fire (p_timers p) p).
  assert (Hf : forall p, p_id (f p) = p_id p) by (intros p; unfold f; destruct (timers_eff (p_timers p) p) as (_ & _ & _ & E & _); exact E).
  destruct HP as [H9 H1 H2 H3 H4 H5 H6 H7 R1 R2].
  constructor; cbn [with_procs s_procs s_core s_hq]; try assumption.
  - apply map_proc_sorted; assumption.
  - intros w p' x t Hp' Ht. destruct (find_map_proc_inv f _ _ _ Hf Hp') as (p & Hp & ->).
    unfold f. destruct (timers_eff (p_timers p) p) as (E1 & E2 & _ & _ & E5 & E6 & _).
    rewrite E1, E2, (local_eq p _ x E5 E6). eapply H1; eassumption.
  - intros w p' Hp'. destruct (find_map_proc_inv f _ _ _ Hf Hp') as (p & Hp & ->).
    unfold f. destruct (timers_eff (p_timers p) p) as (_ & E2 & E3 & _).
    rewrite (rqs_ok_eq _ p _ E2 E3). eapply H2; eassumption.
  - intros w p' Hp'. destruct (find_map_proc_inv f _ _ _ Hf Hp') as (p & Hp & ->).
    unfold f. destruct (timers_eff (p_timers p) p) as (_ & _ & _ & _ & _ & _ & E7).
    apply local_ok_LOK, E7, local_ok_LOK. eapply H3; eassumption.
  - intros w p' x Hp' Hx. destruct (find_map_proc_inv f _ _ _ Hf Hp') as (p & Hp & ->).
    unfold f in Hx. destruct (timers_eff (p_timers p) p) as (E1 & E2 & _ & _ & E5 & E6 & _).
    unfold proc_tids in Hx. rewrite E1, E2, E5, E6 in Hx. eapply H4; eassumption.
Qed.

Theorem worker_step_PROTO s o s' outs : PROTO s -> worker_op o -> step s o = Ok (s', outs) -> PROTO s'.
Proof.
  intros HP Hw H. destruct o; try destruct Hw; cbn [step] in H.
  - (* OpDDown *)
    destruct (find_proc (s_procs s) w) as [p|] eqn:Hp; [|discriminate]. destruct (p_down p) as [|m rest] eqn:Ed; [discriminate|].
    destruct (process_message_PROTO s w p m rest rq_order HP Hp Ed) as [(p' & ls & E & HP')|E]; rewrite E in H; [|discriminate].
    cbn [bind] in H. inversion H; subst. exact HP'.
  - (* OpEnd *)
    destruct (find_proc (s_procs s) w) as [p|] eqn:Hp; [|discriminate].
    destruct (task_end_PROTO s w p t how HP Hp) as [(p' & ls & E & HP')|E]; rewrite E in H; [|discriminate].
    cbn [bind] in H. inversion H; subst. exact HP'.
  - (* OpFailNext *)
    destruct (find_proc (s_procs s) w) as [p|] eqn:Hp; [|discriminate]. inversion H; subst.
    eapply PROTO_same_proc; try eassumption; reflexivity.
  - (* OpTimer *)
    inversion H; subst. apply timers_PROTO. exact HP.
Qed.

Theorem worker_process_never_panics_PROTO s o : PROTO s -> worker_op o -> is_panic (step s o) = false.
Proof.
  intros HP Hw. destruct o; try destruct Hw; cbn [step].
  - destruct (find_proc (s_procs s) w) as [p|] eqn:Hp; [|reflexivity]. destruct (p_down p) as [|m rest] eqn:Ed; [reflexivity|].
    destruct (process_message_PROTO s w p m rest rq_order HP Hp Ed) as [(p' & ls & E & _)|E]; rewrite E; reflexivity.
  - destruct (find_proc (s_procs s) w) as [p|] eqn:Hp; [|reflexivity].
    destruct (task_end_PROTO s w p t how HP Hp) as [(p' & ls & E & _)|E]; rewrite E; reflexivity.
  - destruct (find_proc (s_procs s) w); reflexivity.
  - reflexivity.
Qed.
