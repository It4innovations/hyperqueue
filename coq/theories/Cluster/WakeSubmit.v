(** C02 wake-up discipline, per-operation analysis (part 2): THE SUBMITS.

    A submit that creates at least one task leaves the flag set ([on_new_tasks] ends with
    [ask_for_scheduling]).  A submit that creates none (refused, or an array with zero entries, or
    an empty graph) changes the core at most by appending new request classes with empty queues,
    which changes neither [placeable] nor [busy] (here the structural invariant "as many queues as
    request classes" of the queue invariant is needed, hence [INV]).
    So [wake_inv] is preserved by [OpSubmit] / [OpSubmitG]: the checked set of WakeStep.v shrinks to
    [OpCancel] and [OpDUp] - the two operations in which the lost wake-ups were found. *)
From HQ Require Import Base.Prelude Cluster.Types Cluster.Core Cluster.Reactor Cluster.Server Cluster.Sys Cluster.BijFinal Cluster.InvQStep Cluster.InvBundle Cluster.NoPanicU0 Cluster.NoFresh Cluster.StartFin2 Cluster.RetractFree Cluster.RestU1 Cluster.StepShape Cluster.Wake Cluster.WakeStep Cluster.WakeRest.
From Coq Require Import ZArith.
Local Open Scope N_scope.

Definition ext (c c' : core) : Prop :=
  c_tasks c' = c_tasks c /\ c_workers c' = c_workers c /\ c_redirects c' = c_redirects c /\ c_flag c' = c_flag c /\
  exists l, c_rqs c' = c_rqs c ++ l /\ c_queues c' = c_queues c ++ map (fun _ => empty_queue) l.

Lemma ext_refl c : ext c c.
Proof. repeat split. exists []. cbn. rewrite !app_nil_r. auto. Qed.

Lemma ext_trans a b c : ext a b -> ext b c -> ext a c.
Proof.
  intros (A1 & A2 & A3 & A4 & l1 & A5 & A6) (B1 & B2 & B3 & B4 & l2 & B5 & B6).
  repeat split; try congruence. exists (l1 ++ l2). rewrite B5, B6, A5, A6, map_app, <- !app_assoc. auto.
Qed.

Lemma existsb_ext_in {A} (f g : A -> bool) l : (forall x, In x l -> f x = g x) -> existsb f l = existsb g l.
Proof.
  induction l as [|h t IH]; cbn [existsb]; intros H; [reflexivity|].
  rewrite (H h (or_introl eq_refl)), IH; [reflexivity|]. intros x Hx. apply H. right. exact Hx.
Qed.

Lemma fold_left_neutral {A B C} (f : A -> B -> A) (e : B) : (forall a, f a e = a) ->
  forall (l : list C) a, fold_left f (map (fun _ => e) l) a = a.
Proof. intros He. induction l as [|h t IH]; cbn [map fold_left]; intros a; [reflexivity|]. rewrite He. apply IH. Qed.

Lemma combine_app {A B} (sa : list A) (a : list B) sb b : length sa = length a ->
  combine (sa ++ sb) (a ++ b) = combine sa a ++ combine sb b.
Proof.
  revert a. induction sa as [|x sa IH]; intros [|h t] Hl; try discriminate; cbn [app combine]; [reflexivity|].
  f_equal. apply IH. cbn [length] in Hl. lia.
Qed.

Lemma indexed_app {A} (a b : list A) : indexed (a ++ b) = indexed a ++ combine (seq (length a) (length b)) b.
Proof.
  unfold indexed. rewrite app_length, seq_app. cbn [Nat.add]. apply combine_app. apply seq_length.
Qed.

Lemma indexed_lt {A} (l : list A) i x : In (i, x) (indexed l) -> (i < length l)%nat.
Proof. unfold indexed. intros H. apply in_combine_l in H. apply in_seq in H. lia. Qed.

Lemma mn_fits_ext c c' r : c_tasks c' = c_tasks c -> c_workers c' = c_workers c -> mn_fits c' r = mn_fits c r.
Proof.
  intros Ht Hw. unfold mn_fits, free_in_group, mn_free, retracting_from. rewrite Ht, Hw. reflexivity.
Qed.

Lemma class_fits_ext c c' i : ext c c' -> (i < length (c_rqs c))%nat -> class_fits c' i = class_fits c i.
Proof.
  intros (Ht & Hw & _ & _ & l & Hr & _) Hi. unfold class_fits. rewrite Hr, nth_error_app1 by exact Hi.
  destruct (nth_error (c_rqs c) i) as [r|]; [|reflexivity].
  rewrite (mn_fits_ext c c' r Ht Hw), Hw. reflexivity.
Qed.

Lemma placeable_ext c c' : length (c_queues c) = length (c_rqs c) -> ext c c' -> placeable c' = placeable c.
Proof.
  intros Hlen E. pose proof E as (Ht & Hw & _ & _ & l & Hr & Hq). unfold placeable, queues_top_priority.
  rewrite Hq, fold_left_app, fold_left_neutral by (intros [a|]; reflexivity).
  match goal with |- match ?x with _ => _ end = _ => destruct x as [top|] end; [|reflexivity].
  rewrite indexed_app, existsb_app.
  assert (X : existsb (fun iq => at_top top (snd iq) && class_fits c' (fst iq))
                (combine (seq (length (c_queues c)) (length (map (fun _ : rqdef => empty_queue) l))) (map (fun _ : rqdef => empty_queue) l)) = false).
  { destruct (existsb _ (combine _ _)) eqn:Ex; [|reflexivity]. exfalso. apply existsb_exists in Ex. destruct Ex as ([i q] & Hin & Hb).
    apply in_combine_r in Hin. apply in_map_iff in Hin. destruct Hin as (r0 & <- & _). cbn in Hb. discriminate. }
  rewrite X, orb_false_r. apply existsb_ext_in. intros [i q] Hin. cbn [fst snd]. f_equal.
  apply class_fits_ext; [exact E|]. rewrite <- Hlen. exact (indexed_lt _ _ _ Hin).
Qed.

Lemma busy_ext c c' : ext c c' -> busy c' = busy c.
Proof. intros (Ht & _ & Hr & _). unfold busy, task_busy. rewrite Ht, Hr. reflexivity. Qed.

Definition flag_or_ext (c c' : core) : Prop := c_flag c' = true \/ ext c c'.

Lemma flag_or_ext_same c c' : c' = c -> flag_or_ext c c'.
Proof. intros ->. right. apply ext_refl. Qed.

Lemma flag_or_ext_trans a b c : flag_or_ext a b -> flag_or_ext b c -> flag_or_ext a c.
Proof.
  intros A [B|B]; [left; exact B|]. destruct A as [A|A]; [left | right; eapply ext_trans; eassumption].
  destruct B as (_ & _ & _ & -> & _). exact A.
Qed.

Lemma wake_inv_ext s s' : length (c_queues (s_core s)) = length (c_rqs (s_core s)) ->
  flag_or_ext (s_core s) (s_core s') -> wake_inv s = true -> wake_inv s' = true.
Proof.
  intros Hlen [Hf|E] HW; [apply wake_inv_flag; exact Hf|].
  unfold wake_inv in *. rewrite (placeable_ext _ _ Hlen E), (busy_ext _ _ E). destruct E as (_ & _ & _ & -> & _). exact HW.
Qed.

Lemma on_new_tasks_wake s ts s' : on_new_tasks s ts = Ok s' -> flag_or_ext (core_of s) (core_of s').
Proof.
  unfold on_new_tasks. destruct ts as [|t0 tr]; intros H; [apply flag_or_ext_same; inversion H; reflexivity|].
  apply bind_ok in H. destruct H as ([c' retracted] & _ & H). apply bind_ok in H. destruct H as (s1 & _ & H). inversion H. left. reflexivity.
Qed.

Lemma get_or_create_rq_wake s r : flag_or_ext (core_of s) (core_of (fst (get_or_create_rq s r))).
Proof.
  right. unfold get_or_create_rq. destruct (rq_index (c_rqs (core_of s)) r 0); [apply ext_refl|].
  repeat split. exists [r]. cbn. auto.
Qed.

Lemma step_submit_wake s o s' outs : step s o = Ok (s', outs) ->
  match o with
  | OpSubmit _ _ _ _ _ _ _ _ | OpSubmitG _ _ _ _ => flag_or_ext (s_core s) (s_core s')
  | _ => True
  end.
Proof.
  exact (step_submit_pass (fun a b => flag_or_ext (core_of a) (core_of b)) (fun a b c => flag_or_ext_trans _ _ _)
           (fun a b E _ => flag_or_ext_same _ _ E) get_or_create_rq_wake on_new_tasks_wake s o s' outs).
Qed.

Definition wake_proved2 (o : op) : bool := match o with OpCancel _ | OpDUp _ => false | _ => true end.
Definition op_wake_checked_cd (s : sys) (o : op) : bool :=
  wake_proved2 o || match step s o with Ok (s', _) => wake_inv s' | _ => true end.
Fixpoint ops_wake_checked_cd (s : sys) (ops : list op) : bool :=
  match ops with
  | [] => true
  | o :: r => op_wake_checked_cd s o && match step s o with Ok (s1, _) => ops_wake_checked_cd s1 r | _ => true end
  end.

Theorem wake_step_cd s o s' outs : INV s ->
  wake_inv s = true -> step s o = Ok (s', outs) -> op_complete s o = true -> op_wake_checked_cd s o = true -> wake_inv s' = true.
Proof.
  intros HI HW H Hc Hk.
  assert (Hlen : length (c_queues (s_core s)) = length (c_rqs (s_core s))).
  { pose proof (inv_qs _ HI) as Q. unfold queue_statement in Q. tauto. }
  pose proof (step_submit_wake _ _ _ _ H) as Hsub.
  destruct o; try (eapply wake_step; [exact HW | exact H | exact Hc |]; unfold op_wake_checked_cd in Hk; unfold op_wake_checked; cbn [wake_proved wake_proved2 orb] in *; exact Hk).
  - exact (wake_inv_ext _ _ Hlen Hsub HW).
  - exact (wake_inv_ext _ _ Hlen Hsub HW).
Qed.

Lemma wake_run_checked (chk : sys -> op -> bool) (chks : sys -> list op -> bool) :
  (forall s o r, chks s (o :: r) = chk s o && match step s o with Ok (s1, _) => chks s1 r | _ => true end) ->
  (forall s o s' outs, INV s -> wake_inv s = true -> step s o = Ok (s', outs) -> op_complete s o = true -> chk s o = true -> wake_inv s' = true) ->
  forall ops s s' outs, along INV s ops ->
  wake_inv s = true -> run s ops = Ok (s', outs) -> ops_complete s ops = true -> chks s ops = true -> wake_inv s' = true.
Proof.
  intros Hcons Hstep. induction ops as [|o r IH]; cbn [run ops_complete along]; intros s s' outs [HI Hal] HW H Hc Hk.
  - inversion H; subst. exact HW.
  - apply bind_ok in H. destruct H as ([s1 o1] & H1 & H). apply bind_ok in H. destruct H as ([s2 o2] & H2 & H). inversion H; subst.
    rewrite Hcons in Hk. rewrite H1 in Hc, Hk, Hal. apply andb_true_iff in Hc. destruct Hc as [Hc1 Hc2]. apply andb_true_iff in Hk. destruct Hk as [Hk1 Hk2].
    eapply IH; [exact Hal | | exact H2 | exact Hc2 | exact Hk2]. eapply Hstep; eassumption.
Qed.

Theorem wake_run_cd : forall ops s s' outs, along INV s ops ->
  wake_inv s = true -> run s ops = Ok (s', outs) -> ops_complete s ops = true -> ops_wake_checked_cd s ops = true -> wake_inv s' = true.
Proof. exact (wake_run_checked op_wake_checked_cd ops_wake_checked_cd (fun _ _ _ => eq_refl) wake_step_cd). Qed.

Theorem wake_reachable_cd r m ops s outs :
  Forall op_wf ops -> ops_ok (init_sys r m) ops = true -> ops_complete (init_sys r m) ops = true -> ops_wake_checked_cd (init_sys r m) ops = true ->
  run (init_sys r m) ops = Ok (s, outs) -> wake_inv s = true.
Proof.
  intros Hwf Hok Hc Hk H.
  eapply wake_run_cd; [| apply wake_inv_init | exact H | exact Hc | exact Hk].
  apply along_INV; [exact Hwf | eapply fresh_of_ops; eassumption].
Qed.

Theorem rest_no_runnable_work_cd ops r m s outs :
  Forall op_wf ops -> ops_ok (init_sys r m) ops = true -> ops_complete (init_sys r m) ops = true -> ops_wake_checked_cd (init_sys r m) ops = true ->
  run (init_sys r m) ops = Ok (s, outs) -> at_rest s ->
  forall j jb i, find_job (h_jobs (s_hq s)) j = Some jb -> (jt_find (j_tasks jb) i = Some JW \/ jt_find (j_tasks jb) i = Some JR) ->
  exists t, find_task (c_tasks (s_core s)) (j, i) = Some t /\ task_at_rest_ok s (j, i) t.
Proof.
  intros Hwf Hok Hc Hk H Hrest. eapply rest_no_runnable_work_inv; try eassumption. eapply wake_reachable_cd; eassumption.
Qed.

Theorem rest_nothing_placeable_cd ops r m s outs :
  Forall op_wf ops -> ops_ok (init_sys r m) ops = true -> ops_complete (init_sys r m) ops = true -> ops_wake_checked_cd (init_sys r m) ops = true ->
  run (init_sys r m) ops = Ok (s, outs) -> at_rest s -> placeable (s_core s) = false.
Proof.
  intros Hwf Hok Hc Hk H Hrest. eapply rest_nothing_placeable_inv; try eassumption. eapply wake_reachable_cd; eassumption.
Qed.

(** the example history of WakeRest.v meets the smaller check too *)
Lemma ex_ops_checked_cd : ops_wake_checked_cd (init_sys 0 2) ex_ops = true.
Proof. vm_compute. reflexivity. Qed.

Print Assumptions wake_reachable_cd.
Print Assumptions rest_no_runnable_work_cd.
