(** The one channel fact the core-level invariants (worker sets, queues, dependencies) need and
    that is not provable from the core alone: a reject ([UReject]) that the server processes was
    sent by the worker the task is currently placed on.

    [task_reject] (reactor.rs) handles the other case "defensively" (it re-queues the task without
    taking it out of the other worker's sets), which would corrupt the bookkeeping if it could
    happen.  It cannot: a worker rejects only tasks it received as assigned, an assigned task leaves
    its worker only through an update of that worker or the loss of the worker (whose channel is
    dropped) - but this argument is about messages in flight (the pipeline invariant I3, not
    proved).  The fact is therefore an explicit, EXECUTABLE hypothesis of the theorems that need
    it ([run_fresh ... = true]) and is evaluated as a monitor on every explored history. *)
From HQ Require Import Base.Prelude Cluster.Types Cluster.Core Cluster.Reactor Cluster.Worker Cluster.Sys.
From Coq Require Import ZArith.
Local Open Scope N_scope.

(** One update of [apply_updates]. *)
Definition apply_one (s : st) (w : wid) (u : wupdate) : res (st * bool) :=
  match u with
  | UFinished t => task_finished s w t
  | UFailed t k => do s' <- task_failed s (Some w) t k; Ok (s', true)
  | URunning t rv | URunningPrefilled t rv => task_running s w t rv
  | UReject t rv => task_reject s w t rv
  | UEnable rq rv => do s' <- request_enabled s w rq rv; Ok (s', true)
  end.

Lemma apply_updates_cons s w u r need :
  apply_updates s w (u :: r) need = (do (s', n') <- apply_one s w u; apply_updates s' w r (need || n')).
Proof. destruct u; reflexivity. Qed.

(** The reject [u] (if it is one) comes from the worker its task is placed on. *)
Definition reject_fresh (s : st) (w : wid) (u : wupdate) : bool :=
  match u with
  | UReject t rv =>
      match find_task (c_tasks (core_of s)) t with
      | Some tk => match t_state tk with
                   | Assigned w1 rv1 =>
                       (* ... and it names the variant the task was assigned with (the worker echoes
                          what it was sent; [task_reject] re-queues "invalid variant" rejects too) *)
                       N.eqb w w1 && match rv with Some v => N.eqb v rv1 | None => false end
                   | Prefilled w1 | Retracting w1 => N.eqb w w1
                   | _ => true
                   end
      | None => true
      end
  | UFailed t _ =>
      (* a task the scheduler placed as a multi-node task has a multi-node request: the model takes
         the solver's answer as an unconstrained witness and [map_mn_sets] does not look at the
         request, while [task_failed] branches on the REQUEST; the real solver creates multi-node
         placements only for multi-node request classes *)
      match find_task (c_tasks (core_of s)) t with
      | Some tk => match t_state tk with
                   | RunningMN _ => match nth_error (c_rqs (core_of s)) (N.to_nat (t_rq tk)) with
                                    | Some r => rq_is_mn r
                                    | None => true
                                    end
                   | _ => true
                   end
      | None => true
      end
  | _ => true
  end.

Fixpoint rejects_fresh (s : st) (w : wid) (us : list wupdate) : bool :=
  match us with
  | [] => true
  | u :: r =>
      reject_fresh s w u
      && match apply_one s w u with
         | Ok (s', _) => rejects_fresh s' w r
         | _ => true
         end
  end.

Definition step_fresh (s : sys) (o : op) : bool :=
  match o with
  | OpDUp w =>
      match find_proc (s_procs s) w with
      | Some p =>
          match p_up p with
          | UUpdates us :: rest =>
              rejects_fresh (with_procs s (set_proc (s_procs s) (wp_up p rest)), [OUp w (UUpdates us)]) w us
          | _ => true
          end
      | None => true
      end
  | _ => true
  end.

(** The hypothesis, for a whole history. *)
Fixpoint run_fresh (s : sys) (ops : list op) : bool :=
  match ops with
  | [] => true
  | o :: r =>
      step_fresh s o
      && match step s o with
         | Ok (s1, _) => run_fresh s1 r
         | _ => true
         end
  end.

Lemma run_fresh_cons s o r s1 outs :
  run_fresh s (o :: r) = true -> step s o = Ok (s1, outs) -> step_fresh s o = true /\ run_fresh s1 r = true.
Proof. cbn [run_fresh]. intros H E. rewrite E in H. apply andb_true_iff in H. exact H. Qed.
