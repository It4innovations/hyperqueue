(** C06 "instance ids strictly increase": the invariant [EX] is kept - across an operation
    of the server ([EX_transfer]; [EX_server] for those that send compute messages only for tasks
    that are waiting or have just been given back), across one event of a worker process (the
    launches happen here), and across the operations that do not touch the core: the timers, a new
    worker. *)
From HQ Require Import Base.Prelude Cluster.Types Cluster.Core Cluster.Reactor Cluster.Worker Cluster.Server Cluster.Sys Cluster.Monitors Cluster.RejHyp Cluster.ProofsJob Cluster.ProofsMore Cluster.ProofsTerminal Cluster.ProofsStep Cluster.ProofsFinal Cluster.ProofsOnce Cluster.BijBase Cluster.BijCore Cluster.BijHq Cluster.BijSt Cluster.BijReact Cluster.BijFinal Cluster.InvWBase Cluster.InvBundle Cluster.NoPanicL0 Cluster.NoPanicU0 Cluster.NoPanicU1 Cluster.NoPanicU2 Cluster.NoPanicU6 Cluster.InvDStep Cluster.InvProcsDef Cluster.NoPanicU20 Cluster.ExecU1 Cluster.ExecU2 Cluster.ExecU3 Cluster.ExecU5 Cluster.ExecU9 Cluster.ExecU10.
From HQ Require Import Cluster.StepShape.
From HQ Require Import Cluster.ModelFacts.
From Coq Require Import ZArith Lia Sorting.Sorted.
Local Open Scope N_scope.

Lemma TT_find (T N : tid -> Prop) c c' x t' : CS c -> CS c' -> TT T N c c' -> find_task (c_tasks c') x = Some t' ->
  (exists t, find_task (c_tasks c) x = Some t /\ t_inst t <= t_inst t' /\
             (t_inst t' = t_inst t -> is_waiting t' = true -> is_waiting t = true \/ T x)) \/ N x.
Proof.
  intros Hs Hs' H Hf. destruct (find_task_some _ _ _ Hf) as [Hin Hid].
  destruct (H t' Hin) as [(t & Ht & Ei & Le & W)|Hn]; [left | right; rewrite <- Hid; exact Hn].
  exists t. split; [rewrite <- Hid, <- Ei; apply in_find_task; [exact (CS_sorted _ Hs) | exact Ht]|]. split; [exact Le|]. rewrite <- Hid. exact W.
Qed.

Lemma seen_active_or_dead s o x : seen (s_hq s) x = true -> active (s, o) x \/ dead (s, o) x.
Proof.
  unfold seen. intros H. apply andb_true_iff in H. destruct H as [Ha Hb]. apply N.ltb_lt in Ha.
  unfold active, dead, jt, task_state, absent, cnt_of. change (hq_of (s, o)) with (s_hq s).
  destruct (find_job (h_jobs (s_hq s)) (fst x)) as [j|] eqn:Ej; [|right; right; auto].
  destruct (jt_find (j_tasks j) (snd x)) as [v|] eqn:Ev; [|discriminate].
  destruct v.
  - left. exists (j_tasks j). split; [reflexivity|]. unfold jactive. rewrite Ev. left. reflexivity.
  - left. exists (j_tasks j). split; [reflexivity|]. unfold jactive. rewrite Ev. right. reflexivity.
  - right. left. exists JF. split; [reflexivity | unfold terminal; tauto].
  - right. left. exists JX. split; [reflexivity | unfold terminal; tauto].
  - right. left. exists JC. split; [reflexivity | unfold terminal; tauto].
  - right. left. exists JA. split; [reflexivity | unfold terminal; tauto].
Qed.

Lemma new_unseen s s' outs x t' : INV s -> INV s' -> G (s, []) (s', outs) ->
  find_task (c_tasks (s_core s)) x = None -> find_task (c_tasks (s_core s')) x = Some t' -> seen (s_hq s) x = false.
Proof.
  intros HI HI' HG Hn Hf. destruct (seen (s_hq s) x) eqn:Es; [|reflexivity]. exfalso.
  assert (Hact' : active (s', outs) x).
  { apply (active_same (s', []) (s', outs)); [intros; reflexivity|]. apply (cb_b _ (inv_cb _ HI')). apply find_task_present. eauto. }
  destruct (seen_active_or_dead s [] x Es) as [Ha|Hd].
  - apply (cb_b _ (inv_cb _ HI)) in Ha. apply find_task_present in Ha. destruct Ha as (t & Ht). change (core_of (s, [])) with (s_core s) in Ht. congruence.
  - exact (active_not_dead _ _ Hact' (G_dead _ _ _ (inv_fresh _ HI) HG Hd)).
Qed.

Lemma tags_in ps c : In c (tags ps) -> exists p, In p ps /\ In c (ptags p).
Proof. unfold tags. rewrite in_flat_map. auto. Qed.
Lemma tags_of ps p c : In p ps -> In c (ptags p) -> In c (tags ps).
Proof. unfold tags. rewrite in_flat_map. eauto. Qed.

Lemma ptags_app_down p p' add : p_backlog p' = p_backlog p -> p_down p' = p_down p ++ add ->
  forall c, In c (ptags p') -> In c (ptags p) \/ In c (map ctag (dcts add)).
Proof.
  intros Eb Ed c Hc. unfold ptags in *. rewrite Ed, Eb, dcts_app, map_app in Hc. rewrite !in_app_iff in *. tauto.
Qed.
Lemma pc_app_down x p p' add : p_backlog p' = p_backlog p -> p_down p' = p_down p ++ add -> pc x p' = (pc x p + dc x add)%nat.
Proof. intros Eb Ed. unfold pc. rewrite Ed, Eb, dc_app. lia. Qed.

Lemma pc_pos_tags x p : (0 < pc x p)%nat -> exists j, In (x, j) (ptags p).
Proof.
  unfold pc, ptags. intros H. destruct (dc x (p_down p)) eqn:Ed.
  - assert (Hb : (0 < bl_count x (p_backlog p))%nat) by lia. apply bl_count_in in Hb. destruct Hb as (y & Hy & Hid).
    exists (wt_inst y). apply in_app_iff. right. apply in_map_iff. exists y. split; [unfold wtag; rewrite Hid; reflexivity | exact Hy].
  - assert (Hd : (0 < ccnt x (dcts (p_down p)))%nat) by (unfold dc in Ed; lia). apply ccnt_pos in Hd. destruct Hd as (ct & Hct & Hid).
    exists (ct_inst ct). apply in_app_iff. left. apply in_map_iff. exists ct. split; [unfold ctag; rewrite Hid; reflexivity | exact Hct].
Qed.
Lemma cc_pos_tags x ps : (0 < cc x ps)%nat -> exists j, In (x, j) (tags ps).
Proof.
  induction ps as [|h r IH]; cbn [cc]; [lia|]. intros H. destruct (pc x h) eqn:E.
  - destruct (IH ltac:(lia)) as (j & Hj). exists j. unfold tags in *. cbn [flat_map]. apply in_app_iff. right. exact Hj.
  - destruct (pc_pos_tags x h ltac:(lia)) as (j & Hj). exists j. unfold tags. cbn [flat_map]. apply in_app_iff. left. exact Hj.
Qed.

(** Nothing is launched.  The tasks change by [TT]; a copy in [s'] is a copy in [s] or NEW: its
    instance id is above the server's old one - or equal to it, if the task was waiting or has just
    been given back - and at most the server's new one. *)
Section Transfer.
Variables (s s' : sys) (pre outs : list out) (T : tid -> Prop).
Hypothesis HE : EX s pre.
Hypothesis HP : PROTO s.
Hypothesis HP' : PROTO s'.
Hypothesis Hcs : CS (s_core s).
Hypothesis Hcs' : CS (s_core s').
Hypothesis Hl : launches outs = [].
Hypothesis Hsm : forall x, seen (s_hq s) x = true -> seen (s_hq s') x = true.
Hypothesis Hnew : forall x t', find_task (c_tasks (s_core s)) x = None -> find_task (c_tasks (s_core s')) x = Some t' -> seen (s_hq s) x = false.
Hypothesis HT : TT T (absent_in s) (s_core s) (s_core s').
Hypothesis Hg : forall x, T x -> exists p, In p (s_procs s) /\ In x (gives (p_up p)).
Hypothesis Hgv : forall p' y, In p' (s_procs s') -> In y (gives (p_up p')) -> exists p, In p (s_procs s) /\ In y (gives (p_up p)).
Hypothesis Htags : forall x j, In (x, j) (tags (s_procs s')) -> In (x, j) (tags (s_procs s)) \/
  (exists t, find_task (c_tasks (s_core s)) x = Some t /\ (t_inst t < j \/ t_inst t <= j /\ (is_waiting t = true \/ T x))) /\
  (forall t', find_task (c_tasks (s_core s')) x = Some t' -> j <= t_inst t').
Hypothesis HU : forall x, find_task (c_tasks (s_core s')) x = None -> (cc x (s_procs s') <= 1)%nat.

Lemma srv_origin x t' : find_task (c_tasks (s_core s')) x = Some t' ->
  (exists t, find_task (c_tasks (s_core s)) x = Some t /\ t_inst t <= t_inst t' /\
             (t_inst t' = t_inst t -> is_waiting t' = true -> is_waiting t = true \/ T x)) \/
  (find_task (c_tasks (s_core s)) x = None /\ seen (s_hq s) x = false).
Proof.
  intros Hf. destruct (TT_find _ _ _ _ _ _ Hcs Hcs' HT Hf) as [X|Hn]; [left; exact X|]. right. split; [exact Hn | eapply Hnew; eassumption].
Qed.

Lemma copy_seen x j : In (x, j) (tags (s_procs s)) -> seen (s_hq s) x = true.
Proof.
  intros Hc. destruct (tags_in _ _ Hc) as (p & Hin & Hc'). apply (pr_seen _ HP (p_id p) p x (in_find_proc _ _ (pr_sorted _ HP) Hin)).
  unfold ptags in Hc'. unfold proc_tids. apply in_app_iff in Hc'. destruct Hc' as [A|A]; apply in_map_iff in A; destruct A as (y & E & Hy); inversion E; subst.
  - apply in_app_iff. left. unfold dcts in Hy. apply in_flat_map in Hy. destruct Hy as (m & Hm & Hy). apply in_flat_map. exists m. split; [exact Hm|].
    destruct m; try destruct Hy. cbn. apply in_map. exact Hy.
  - apply in_app_iff. right. apply in_app_iff. right. apply in_app_iff. left. unfold bts in Hy. apply in_flat_map in Hy. destruct Hy as (kv & Hk & Hy).
    apply in_flat_map. exists kv. split; [exact Hk | apply in_map; exact Hy].
Qed.

Theorem EX_transfer : EX s' (pre ++ outs).
Proof.
  destruct HE as [EU EH EH2 ES1 ES2 EL EM].
  assert (Els : launches (pre ++ outs) = launches pre) by (rewrite launches_app, Hl, app_nil_r; reflexivity).
  assert (Hns : forall x t l, find_task (c_tasks (s_core s)) x = Some t -> In l (launches pre) -> l_t l = x -> l_inst l = t_inst t ->
            is_waiting t = true \/ T x -> False).
  { intros x t l Ht Hin Hlt Hli Hs. destruct (ES2 _ _ Ht (ex_intro _ l (conj Hin (conj Hlt Hli)))) as (Hw & _ & Hng).
    destruct Hs as [Hs|Hs]; [congruence|]. destruct (Hg _ Hs) as (p & Hp & Hgp). exact (Hng p Hp Hgp). }
  assert (XH : forall x j, In (x, j) (tags (s_procs s')) -> LT (launches pre) x j).
  { intros x j Hc. destruct (Htags x j Hc) as [Ho|[(t & Ht & Hj) _]]; [exact (EH x j Ho)|].
    intros l Hin Hlt. pose proof (ES1 _ _ Ht l Hin Hlt) as Hle. destruct Hj as [Hj|[Hj Hs]]; [lia|].
    destruct (N.eq_dec (l_inst l) (t_inst t)) as [Eq|Ne]; [|lia]. destruct (Hns x t l Ht Hin Hlt Eq Hs). }
  assert (XH2 : forall x j t', In (x, j) (tags (s_procs s')) -> find_task (c_tasks (s_core s')) x = Some t' -> j <= t_inst t').
  { intros x j t' Hc Hf'. destruct (Htags x j Hc) as [Ho|[_ Hle]]; [|exact (Hle t' Hf')].
    destruct (srv_origin _ _ Hf') as [(t0 & Ht0 & Le & _)|[_ Hu]]; [|rewrite (copy_seen _ _ Ho) in Hu; discriminate].
    pose proof (EH2 _ _ _ Ho Ht0). lia. }
  constructor; rewrite ?Els.
  - (* U *) intros x. destruct (find_task (c_tasks (s_core s')) x) as [t'|] eqn:Ef; [exact (known_cc s' HP' x t' Ef) | exact (HU x Ef)].
  - (* H *) exact XH.
  - (* H2 *) exact XH2.
  - (* S1 *) intros x t' Hf' l Hin Hlt. destruct (srv_origin _ _ Hf') as [(t0 & Ht0 & Le & _)|[_ Hu]].
    + pose proof (ES1 _ _ Ht0 l Hin Hlt). lia.
    + rewrite <- Hlt, (EL l Hin) in Hu. discriminate.
  - (* S2 *) intros x t' Hf' (l & Hin & Hlt & Hli).
    destruct (srv_origin _ _ Hf') as [(t0 & Ht0 & Le & W)|[_ Hu]]; [|rewrite <- Hlt, (EL l Hin) in Hu; discriminate].
    pose proof (ES1 _ _ Ht0 l Hin Hlt) as Hle. assert (Et : t_inst t' = t_inst t0) by lia.
    assert (Eli : l_inst l = t_inst t0) by lia.
    destruct (ES2 _ _ Ht0 (ex_intro _ l (conj Hin (conj Hlt Eli)))) as (_ & _ & Hng).
    split; [|split].
    + destruct (is_waiting t') eqn:Ew; [|reflexivity]. destruct (Hns x t0 l Ht0 Hin Hlt Eli (W Et eq_refl)).
    + (* a copy would lie strictly above the launch [l] and at most at the instance id of [l] *)
      destruct (cc x (s_procs s')) eqn:Ec; [reflexivity|]. exfalso.
      destruct (cc_pos_tags x (s_procs s') ltac:(lia)) as (j & Hj).
      pose proof (XH x j Hj l Hin Hlt). pose proof (XH2 x j t' Hj Hf'). lia.
    + intros p' Hin' Hgp'. destruct (Hgv p' x Hin' Hgp') as (p & Hp & Hgp). exact (Hng p Hp Hgp).
  - (* L *) intros l Hin. apply Hsm. exact (EL l Hin).
  - (* M *) exact EM.
Qed.
End Transfer.

(** The transfer described by what is appended to the down channels: compute entries for tasks that
    are waiting or have just been given back, with the server's new instance ids *)
Section Server.
Variables (s s' : sys) (pre outs : list out) (T : tid -> Prop).
Hypothesis HE : EX s pre.
Hypothesis HP : PROTO s.
Hypothesis HP' : PROTO s'.
Hypothesis Hcs : CS (s_core s).
Hypothesis Hcs' : CS (s_core s').
Hypothesis Hl : launches outs = [].
Hypothesis Hsm : forall x, seen (s_hq s) x = true -> seen (s_hq s') x = true.
Hypothesis Hnew : forall x t', find_task (c_tasks (s_core s)) x = None -> find_task (c_tasks (s_core s')) x = Some t' -> seen (s_hq s) x = false.
Hypothesis HT : TT T (absent_in s) (s_core s) (s_core s').
Hypothesis Hg : forall x, T x -> exists p, In p (s_procs s) /\ In x (gives (p_up p)).
Hypothesis HF : forall w p', find_proc (s_procs s') w = Some p' ->
  exists p add, find_proc (s_procs s) w = Some p /\ p_backlog p' = p_backlog p /\
    (forall y, In y (gives (p_up p')) -> In y (gives (p_up p))) /\ p_down p' = p_down p ++ add /\
    forall ct, In ct (dcts add) ->
      (exists t', find_task (c_tasks (s_core s')) (ct_id ct) = Some t' /\ ct_inst ct = t_inst t') /\
      (exists t, find_task (c_tasks (s_core s)) (ct_id ct) = Some t /\ (is_waiting t = true \/ T (ct_id ct))).

Theorem EX_server : EX s' (pre ++ outs).
Proof.
  pose proof (pr_sorted _ HP) as Hps. pose proof (pr_sorted _ HP') as Hps'.
  apply (EX_transfer s s' pre outs T HE HP HP' Hcs Hcs' Hl Hsm Hnew HT Hg).
  - intros p' y Hin' Hy. destruct (HF _ _ (in_find_proc _ _ Hps' Hin')) as (p & add & Hf & _ & Hgs & _).
    exists p. split; [exact (proj1 (find_proc_some _ _ _ Hf)) | exact (Hgs _ Hy)].
  - intros x j Hc. destruct (tags_in _ _ Hc) as (p' & Hin' & Hc').
    destruct (HF _ _ (in_find_proc _ _ Hps' Hin')) as (p & add & Hf & Eb & _ & Ed & Hadd).
    destruct (ptags_app_down p p' add Eb Ed _ Hc') as [Ho|Hn]; [left; eapply tags_of; [exact (proj1 (find_proc_some _ _ _ Hf)) | exact Ho]|].
    right. apply in_map_iff in Hn. destruct Hn as (ct & E & Hct). unfold ctag in E. inversion E; subst x j.
    destruct (Hadd ct Hct) as ((t' & Ht' & Ej) & (t & Ht & Hs)). split.
    + exists t. split; [exact Ht|]. right. split; [|exact Hs].
      destruct (TT_find _ _ _ _ _ _ Hcs Hcs' HT Ht') as [(t0 & Ht0 & Le & _)|Hn]; [|unfold absent_in in Hn; congruence].
      rewrite Ej. congruence.
    + intros t'' Ht''. rewrite Ej. replace t'' with t' by congruence. lia.
  - (* a task unknown to [s'] gets no new copy *)
    intros x Hn. pose proof (ex_u _ _ HE x) as EU. enough (cc x (s_procs s') <= cc x (s_procs s))%nat by lia.
    rewrite !cc_psum. apply psum_le; [exact Hps' | exact Hps|]. intros p' Hin'.
    destruct (HF _ _ (in_find_proc _ _ Hps' Hin')) as (p & add & Hf & Eb & _ & Ed & Hadd). exists p. split; [exact Hf|].
    rewrite (pc_app_down x p p' add Eb Ed). assert (Hz : dc x add = O); [|lia].
    unfold dc. destruct (ccnt x (dcts add)) eqn:E; [reflexivity|]. exfalso.
    assert (Hpos : (0 < ccnt x (dcts add))%nat) by lia. apply ccnt_pos in Hpos. destruct Hpos as (ct & Hct & Hid).
    destruct (Hadd ct Hct) as ((t' & Ht' & _) & _). rewrite Hid in Ht'. congruence.
Qed.
End Server.

Lemma in_set_proc ps np q : In q (set_proc ps np) -> q = np \/ In q ps.
Proof.
  induction ps as [|h r IH]; cbn [set_proc]; [intros [<-|[]]; auto|].
  destruct (N.eqb (p_id np) (p_id h)); [intros [<-|H]; [auto | right; right; exact H]|].
  destruct (N.ltb (p_id np) (p_id h)); [intros [<-|H]; [auto | right; exact H]|].
  intros [<-|H]; [right; left; reflexivity|]. destruct (IH H); [auto | right; right; assumption].
Qed.


Lemma mono_app a : forall b, mono a -> (forall l, In l b -> LT a (l_t l) (l_inst l)) -> (forall x, (lcnt x b <= 1)%nat) -> mono (a ++ b).
Proof.
  intros b. induction b as [|l r IH] using rev_ind; intros Hm Hl Hc; [rewrite app_nil_r; exact Hm|].
  rewrite app_assoc. apply mono_snoc.
  - apply IH; [exact Hm | intros l0 Hin; apply Hl; apply in_app_iff; left; exact Hin|].
    intros x. specialize (Hc x). rewrite lcnt_app in Hc. lia.
  - intros l0 Hin Et. apply in_app_iff in Hin. destruct Hin as [Hin|Hin]; [apply (Hl l); [apply in_app_iff; right; left; reflexivity | exact Hin | exact Et]|].
    exfalso. specialize (Hc (l_t l)). rewrite lcnt_app, lcnt_one, tid_eqb_refl in Hc.
    assert (0 < lcnt (l_t l) r)%nat by (apply lcnt_pos; eauto). lia.
Qed.

Section Worker.
Variables (s : sys) (pre outs : list out) (w : wid) (p p' : wproc) (ls : list launch) (newg : list tid).
Hypothesis HE : EX s pre.
Hypothesis HP : PROTO s.
Hypothesis Hp : find_proc (s_procs s) w = Some p.
Hypothesis Hid : p_id p' = w.
Hypothesis Hl : launches outs = ls.
Hypothesis HW : weff (ptags p) (fun x => pc x p) p' ls newg.
Hypothesis Hgv : gives (p_up p') = gives (p_up p) ++ newg.

Let s' := with_procs s (set_proc (s_procs s) p').
Let Hps := pr_sorted _ HP.
Let Hinp : In p (s_procs s) := proj1 (find_proc_some _ _ _ Hp).

Lemma wk_cc x : (cc x (s_procs s') + pc x p = cc x (s_procs s) + pc x p')%nat.
Proof. rewrite !cc_psum. exact (psum_set_proc (pc x) _ w p p' Hps Hp Hid). Qed.
Lemma wk_le x : (pc x p <= cc x (s_procs s))%nat.
Proof. rewrite cc_psum. exact (psum_in _ _ p Hinp). Qed.

Lemma wk_tags c : In c (tags (s_procs s')) -> In c (tags (s_procs s)).
Proof.
  intros Hc. destruct (tags_set_proc _ _ _ Hc) as [A|A]; [|exact A]. destruct HW as (_ & _ & W3). eapply tags_of; [exact Hinp | exact (W3 c A)].
Qed.

Lemma wk_launch_copy l : In l ls -> In (ltag l) (tags (s_procs s)) /\ (0 < pc (l_t l) p)%nat.
Proof.
  intros Hin. destruct HW as (_ & W2 & _). pose proof (W2 l Hin) as Hc. split; [eapply tags_of; [exact Hinp | exact Hc]|].
  exact (ptags_pc _ _ _ Hc).
Qed.

Lemma wk_launched x : (0 < lcnt x ls)%nat -> cc x (s_procs s') = O /\ lcnt x ls = 1%nat /\ tcnt x newg = O /\ pc x p = 1%nat.
Proof.
  intros Hpos. destruct HW as (W1 & _ & _). specialize (W1 x). pose proof (ex_u _ _ HE x) as HU. pose proof (wk_le x) as Hle.
  pose proof (wk_cc x). lia.
Qed.

Lemma wk_gives q : In q (s_procs s') -> forall x, In x (gives (p_up q)) -> (exists q0, In q0 (s_procs s) /\ In x (gives (p_up q0))) \/ In x newg.
Proof.
  intros Hq x Hx. unfold s' in Hq. cbn [s_procs with_procs] in Hq.
  destruct (in_set_proc _ _ _ Hq) as [->|Hq']; [|left; eauto]. rewrite Hgv in Hx. apply in_app_iff in Hx. destruct Hx as [Hx|Hx]; [left; eauto | right; exact Hx].
Qed.

Theorem EX_worker : EX s' (pre ++ outs).
Proof.
  destruct HE as [EU EH EH2 ES1 ES2 EL EM]. destruct HW as (W1 & W2 & W3).
  assert (Els : launches (pre ++ outs) = launches pre ++ ls) by (rewrite launches_app, Hl; reflexivity).
  constructor; rewrite ?Els.
  - (* U *) intros x. pose proof (wk_cc x). specialize (W1 x). specialize (EU x). pose proof (wk_le x). lia.
  - (* H *) intros x j Hc l Hin Hlt. apply in_app_iff in Hin. destruct Hin as [Hin|Hin]; [exact (EH x j (wk_tags _ Hc) l Hin Hlt)|].
    exfalso. assert (Hpos : (0 < lcnt x ls)%nat) by (apply lcnt_pos; eauto). destruct (wk_launched x Hpos) as (Hz & _).
    pose proof (tags_cc _ _ _ Hc). lia.
  - (* H2 *) intros x j t Hc Hf. exact (EH2 x j t (wk_tags _ Hc) Hf).
  - (* S1 *) intros x t Hf l Hin Hlt. apply in_app_iff in Hin. destruct Hin as [Hin|Hin]; [exact (ES1 x t Hf l Hin Hlt)|].
    destruct (wk_launch_copy l Hin) as [Hc _]. unfold ltag in Hc. rewrite Hlt in Hc. exact (EH2 _ _ _ Hc Hf).
  - (* S2 *) intros x t Hf (l & Hin & Hlt & Hli). apply in_app_iff in Hin. destruct Hin as [Hin|Hin].
    + destruct (ES2 x t Hf (ex_intro _ l (conj Hin (conj Hlt Hli)))) as (Hw & Hc0 & Hng). split; [exact Hw|].
      pose proof (wk_cc x) as Hcc. specialize (W1 x). pose proof (wk_le x) as Hle. split; [lia|].
      intros q Hq Hx. destruct (wk_gives q Hq x Hx) as [(q0 & Hq0 & Hx0)|Hn]; [exact (Hng q0 Hq0 Hx0)|].
      assert (0 < tcnt x newg)%nat by (apply tcnt_pos; exact Hn). lia.
    + assert (Hpos : (0 < lcnt x ls)%nat) by (apply lcnt_pos; eauto). destruct (wk_launched x Hpos) as (Hz & _ & Hg0 & Hp1).
      destruct (known_pc s HP x t Hf w p Hp) as (_ & _ & K3 & _). destruct (K3 ltac:(lia)) as [Kg Kw].
      split; [exact Kw|]. split; [exact Hz|].
      intros q Hq Hx. destruct (wk_gives q Hq x Hx) as [(q0 & Hq0 & Hx0)|Hn].
      * pose proof (known_given s HP x t Hf q0 Hq0 Hx0) as Hc0. pose proof (wk_le x). lia.
      * assert (0 < tcnt x newg)%nat by (apply tcnt_pos; exact Hn). lia.
  - (* L *) intros l Hin. apply in_app_iff in Hin. destruct Hin as [Hin|Hin]; [exact (EL l Hin)|].
    destruct (wk_launch_copy l Hin) as [Hc _]. exact (copy_seen s HP _ _ Hc).
  - (* M *) apply mono_app; [exact EM | |].
    + intros l Hin. destruct (wk_launch_copy l Hin) as [Hc _]. exact (EH _ _ Hc).
    + intros x. specialize (W1 x). pose proof (wk_le x). specialize (EU x). lia.
Qed.
End Worker.

Lemma EX_shrink s s' pre outs : EX s pre ->
  c_tasks (s_core s') = c_tasks (s_core s) -> (forall x, seen (s_hq s) x = true -> seen (s_hq s') x = true) -> launches outs = [] ->
  (forall x, (cc x (s_procs s') <= cc x (s_procs s))%nat) ->
  (forall c, In c (tags (s_procs s')) -> In c (tags (s_procs s))) ->
  (forall q' y, In q' (s_procs s') -> In y (gives (p_up q')) -> exists q, In q (s_procs s) /\ In y (gives (p_up q))) ->
  EX s' (pre ++ outs).
Proof.
  intros [EU EH EH2 ES1 ES2 EL EM] Ec Es El Hc Ht Hg.
  assert (Els : launches (pre ++ outs) = launches pre) by (rewrite launches_app, El, app_nil_r; reflexivity).
  constructor; rewrite ?Els, ?Ec.
  - intros x. specialize (Hc x). specialize (EU x). lia.
  - intros x j H. exact (EH x j (Ht _ H)).
  - intros x j t H Hf. exact (EH2 x j t (Ht _ H) Hf).
  - exact ES1.
  - intros x t Hf Hl. destruct (ES2 x t Hf Hl) as (A & B & C). split; [exact A|]. split; [specialize (Hc x); lia|].
    intros q' Hq' Hy. destruct (Hg q' x Hq' Hy) as (q & Hq & Hyq). exact (C q Hq Hyq).
  - intros l Hl. apply Es. exact (EL l Hl).
  - exact EM.
Qed.

Lemma tags_map (f : wproc -> wproc) ps : (forall p, ptags (f p) = ptags p) -> tags (map f ps) = tags ps.
Proof. intros H. unfold tags. induction ps as [|h r IH]; [reflexivity|]. cbn [map flat_map]. rewrite H, IH. reflexivity. Qed.

Lemma pc_push_quiet x p m : quietm m -> pc x (push_down p m) = pc x p.
Proof. intros H. rewrite pc_push. destruct m; try (cbn; lia). destruct H. Qed.
Lemma ptags_push_quiet p m : quietm m -> ptags (push_down p m) = ptags p.
Proof. intros H. unfold ptags, push_down. cbn [p_down p_backlog]. rewrite dcts_app. destruct m; try (cbn; rewrite app_nil_r; reflexivity). destruct H. Qed.

Lemma EX_connect s pre rs g s' : EX s pre -> on_new_worker (s, []) rs g = Ok s' -> EX (fst s') (pre ++ snd s').
Proof.
  intros HE H. unfold on_new_worker in H. cbv zeta in H. inversion H; subst s'. clear H.
  cbn [fst snd emit ask_scheduling st_core with_core with_procs broadcast core_of s_core s_procs s_hq].
  set (w := c_wcounter (s_core s) + 1).
  eapply EX_shrink; [exact HE | reflexivity | intros x Hx; exact Hx | reflexivity | | |]; cbn [s_procs s_core s_hq with_procs with_core core_of fst snd].
  - intros x. rewrite !cc_psum. match goal with |- (psum _ (set_proc ?ps ?np) <= _)%nat => pose proof (psum_set_proc_le (pc x) ps np) as Hc end.
    rewrite psum_map in Hc by (intros p; apply pc_push_quiet; exact I).
    match type of Hc with (_ <= _ + pc x ?np)%nat => assert (Hz : pc x np = O) by reflexivity; rewrite Hz in Hc end. lia.
  - intros c Hc. destruct (tags_set_proc _ _ _ Hc) as [A|A]; [cbn in A; destruct A|]. rewrite tags_map in A by (intros p; apply ptags_push_quiet; exact I). exact A.
  - intros q' y Hq Hy. destruct (in_set_proc _ _ _ Hq) as [->|Hq']; [cbn in Hy; destruct Hy|].
    apply in_map_iff in Hq'. destruct Hq' as (q & <- & Hin). exists q. split; [exact Hin | exact Hy].
Qed.

Lemma timer_fold_frame ts : forall p, let p' := fold_left timer_fire ts p in p_down p' = p_down p /\ p_backlog p' = p_backlog p /\ p_up p' = p_up p.
Proof.
  induction ts as [|t r IH]; intros p; cbn [fold_left]; [auto|]. destruct (IH (timer_fire p t)) as (A & B & C). cbv zeta in *.
  rewrite A, B, C. unfold timer_fire. cbn. destruct (fu_find _ t) as [[|]|]; auto.
Qed.

Lemma timer_fold_running ts : forall p, p_running (fold_left timer_fire ts p) = p_running p.
Proof.
  induction ts as [|t r IH]; intros p; [reflexivity|]. cbn [fold_left]. rewrite IH. unfold timer_fire. cbn. destruct (fu_find _ t) as [[|]|]; reflexivity.
Qed.

Lemma EX_timer s pre : EX s pre -> EX (with_procs s (map (fun p => fold_left timer_fire (p_timers p) p) (s_procs s))) (pre ++ []).
Proof.
  intros HE. set (f := fun p => fold_left timer_fire (p_timers p) p).
  assert (Hf : forall p, p_down (f p) = p_down p /\ p_backlog (f p) = p_backlog p /\ p_up (f p) = p_up p) by (intros p; apply timer_fold_frame).
  eapply EX_shrink; [exact HE | reflexivity | intros x Hx; exact Hx | reflexivity | | |]; cbn [s_procs with_procs].
  - intros x. rewrite !cc_psum, (psum_map (pc x) f); [lia|]. intros p. destruct (Hf p) as (A & B & _). unfold pc. rewrite A, B. reflexivity.
  - intros c Hc. rewrite (tags_map f) in Hc; [exact Hc|]. intros p. destruct (Hf p) as (A & B & _). unfold ptags. rewrite A, B. reflexivity.
  - intros q' y Hq Hy. apply in_map_iff in Hq. destruct Hq as (q & <- & Hin). exists q. split; [exact Hin|]. destruct (Hf q) as (_ & _ & C). rewrite <- C. exact Hy.
Qed.

Lemma EX_out s pre outs : launches outs = [] -> EX s pre -> EX s (pre ++ outs).
Proof. intros Hl HE. eapply EX_shrink; [exact HE | reflexivity | auto | exact Hl | intros; lia | auto | eauto]. Qed.

Lemma weff_ext bt bt' (bc bc' : tid -> nat) p' ls ng : (forall c, In c bt -> In c bt') -> (forall x, bc x = bc' x) -> weff bt bc p' ls ng -> weff bt' bc' p' ls ng.
Proof. intros Ht Hc (A & B & C). split; [intros x; rewrite <- Hc; apply A | split; [intros l Hl; apply Ht, B, Hl | intros c Hc'; apply Ht, C, Hc']]. Qed.

Lemma backlog_sorted s w p : PROTO s -> find_proc (s_procs s) w = Some p -> StronglySorted N.lt (map fst (p_backlog p)).
Proof. intros HP Hp. apply lok_bl. apply local_ok_LOK. exact (pr_local _ HP _ _ Hp). Qed.

Lemma EX_ddown s pre w order p m rest p' ls : EX s pre -> PROTO s -> find_proc (s_procs s) w = Some p -> p_down p = m :: rest ->
  process_worker_message (wp_down p rest) m order = Ok (p', ls) ->
  EX (with_procs s (set_proc (s_procs s) p')) (pre ++ ODown w m :: map OLaunch ls).
Proof.
  intros HE HP Hp Ed Hm.
  destruct (find_proc_some _ _ _ Hp) as [_ Hid].
  assert (Hs : StronglySorted N.lt (map fst (p_backlog (wp_down p rest)))) by (cbn; exact (backlog_sorted s w p HP Hp)).
  destruct (pwm_eff _ _ _ _ _ Hm Hs) as (newg & Hg & _ & HW).
  eapply (EX_worker s pre _ w p p' ls newg HE HP Hp); [rewrite (process_worker_message_id _ _ _ _ _ Hm); exact Hid | cbn; apply launches_map | | exact Hg].
  eapply weff_ext; [| |exact HW].
  - intros c Hc. unfold ptags in *. rewrite Ed. cbn [p_down p_backlog wp_down wp_upd] in Hc.
    change (m :: rest) with ([m] ++ rest). rewrite dcts_app, map_app. rewrite !in_app_iff in *. tauto.
  - intros x. unfold pc. rewrite Ed. cbn [p_down p_backlog wp_down wp_upd]. change (m :: rest) with ([m] ++ rest). rewrite dc_app. lia.
Qed.

Lemma EX_end s pre w t how p p' ls : EX s pre -> PROTO s -> find_proc (s_procs s) w = Some p -> task_end p t how = Ok (p', ls) ->
  EX (with_procs s (set_proc (s_procs s) p')) (pre ++ map OLaunch ls).
Proof.
  intros HE HP Hp Hm.
  destruct (find_proc_some _ _ _ Hp) as [_ Hid].
  destruct (task_end_eff _ _ _ _ _ Hm (backlog_sorted s w p HP Hp)) as (Hg & _ & HW).
  eapply (EX_worker s pre _ w p p' ls [] HE HP Hp); [rewrite (task_end_id _ _ _ _ _ Hm); exact Hid | apply launches_map | exact HW | rewrite app_nil_r; exact Hg].
Qed.

Lemma EX_failnext s pre w t p : EX s pre -> PROTO s -> find_proc (s_procs s) w = Some p ->
  EX (with_procs s (set_proc (s_procs s) (wp_failnext p (p_failnext p ++ [t])))) (pre ++ []).
Proof.
  intros HE HP Hp.
  destruct (find_proc_some _ _ _ Hp) as [_ Hid].
  eapply (EX_worker s pre [] w p _ [] [] HE HP Hp); [exact Hid | reflexivity | | rewrite app_nil_r; reflexivity].
  split; [intros x; unfold pc; cbn [lcnt tcnt filter length p_down p_backlog wp_failnext wp_upd]; lia | split; [intros l [] | auto]].
Qed.

Theorem reachable_ind (P : sys -> list out -> Prop) :
  (forall reserve maxfill, P (init_sys reserve maxfill) []) ->
  (forall s pre o s' outs, P s pre -> INV s -> INV s' -> PROTO s -> PROTO s' -> step s o = Ok (s', outs) -> P s' (pre ++ outs)) ->
  forall ops reserve maxfill s outs,
  Forall op_wf ops -> ops_ok (init_sys reserve maxfill) ops = true -> run (init_sys reserve maxfill) ops = Ok (s, outs) -> P s outs.
Proof.
  intros Hinit Hstep. induction ops as [|o pre IH] using rev_ind; intros reserve maxfill s outs Hwf Hok H.
  - cbn in H. inversion H; subst. apply Hinit.
  - pose proof (proj1 (reachable_PROTO _ _ _ _ _ Hwf Hok H)) as HP'. pose proof (reachable_INV_ops _ _ _ _ _ Hwf Hok H) as HI'.
    apply Forall_app in Hwf. destruct Hwf as [Hwf1 Hwf2]. destruct (ops_ok_snoc _ _ _ Hok) as [Hok1 _].
    destruct (run_app _ _ _ _ _ H) as (s1 & o1 & o2 & H1 & H2 & ->). cbn [run] in H2. apply bind_ok in H2. destruct H2 as ([s2 o3] & Hs & H2). cbn in H2. inversion H2; subst s2 o2. clear H2.
    rewrite app_nil_r.
    eapply Hstep; [exact (IH _ _ _ _ Hwf1 Hok1 H1) | exact (reachable_INV_ops _ _ _ _ _ Hwf1 Hok1 H1) | exact HI'
      | exact (proj1 (reachable_PROTO _ _ _ _ _ Hwf1 Hok1 H1)) | exact HP' | exact Hs].
Qed.
