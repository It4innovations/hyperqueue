(** C01 leftovers, worker side (partial): what a worker process reports as finished, or as failed
    with kind FTask / FTimeLimit, it has launched successfully itself.

    [reported_means_ran_partial]: in every reachable state, for every connected worker process [p]
    and task [x]: if [x] is in the running set of [p], or the up channel of [p] holds
    [UFinished x], [UFailed x FTask] or [UFailed x FTimeLimit], then the output so far contains a
    launch [OLaunch l] with [l_w l = p_id p], [l_t l = x], [l_ok l = true].  (The process exists,
    so the worker has not been lost since: a lost worker's process is deleted.)

    NOT covered (hence "_partial"): the link from the server's EVENTS to the messages - that
    [OEv (EvFinished x)] / [OEv (EvFailed x k)] is emitted only while the server processes the
    corresponding update of a worker message, and that the start event precedes it in the stream
    (for EvFinished the latter is StartFin.finished_after_started). *)
From HQ Require Import Base.Prelude Cluster.Types Cluster.Core Cluster.Reactor Cluster.Worker Cluster.Server Cluster.Sys Cluster.Monitors Cluster.RejHyp Cluster.BijFinal Cluster.InvWBase Cluster.InvDStep Cluster.InvBundle Cluster.InvProcsDef Cluster.NoPanicL0 Cluster.NoPanicU0 Cluster.NoPanicU1 Cluster.NoPanicU2 Cluster.NoPanicU4 Cluster.NoPanicU6 Cluster.NoPanicU8 Cluster.NoPanicU11 Cluster.NoPanicU12 Cluster.NoPanicU20 Cluster.ExecU1 Cluster.ExecU5 Cluster.ExecU6 Cluster.ExecU9 Cluster.ExecU13.
From HQ Require Import Cluster.StepShape.
From HQ Require Import Cluster.ModelFacts.
From Coq Require Import ZArith Lia Sorting.Sorted.
Local Open Scope N_scope.

Definition good (w : wid) (x : tid) (l : launch) : Prop := l_w l = w /\ l_t l = x /\ l_ok l = true.
Definition rep (us : list wupdate) (x : tid) : Prop := In (UFinished x) us \/ In (UFailed x FTask) us \/ In (UFailed x FTimeLimit) us.
Definition reports (up : list umsg) (x : tid) : Prop := exists us, In (UUpdates us) up /\ rep us x.
Definition wr (p : wproc) (ups : list wupdate) (x : tid) : Prop := run_find (p_running p) x <> None \/ rep ups x.

Lemma rep_app a b x : rep (a ++ b) x <-> rep a x \/ rep b x.
Proof. unfold rep. rewrite !in_app_iff. tauto. Qed.

Lemma try_start_wr q t rv pre alloc q1 u l st x : try_start_task q t rv pre alloc = (q1, u, l, st) ->
  p_id q1 = p_id q /\ (wr q1 u x -> run_find (p_running q) x <> None \/ exists la, In la l /\ good (p_id q) x la).
Proof.
  unfold try_start_task. destruct (tid_mem (wt_id t) (p_failnext q)) eqn:Ef; intros H; inversion H; subst; unfold wr; cbn [p_id p_running wp_failnext wp_upd]; (split; [reflexivity|]).
  - intros [Hr|Hr]; [left; exact Hr|]. unfold rep in Hr. cbn [In] in Hr. destruct Hr as [[Hr|[]]|[[Hr|[]]|[Hr|[]]]]; discriminate.
  - intros [Hr|Hr].
    + rewrite run_find_set in Hr. destruct (tid_eqb x (wt_id t)) eqn:E; [|left; exact Hr]. apply tid_eqb_eq in E. subst x.
      right. eexists. split; [left; reflexivity|]. unfold good. cbn. auto.
    + unfold rep in Hr. cbn [In] in Hr. destruct pre; destruct Hr as [[Hr|[]]|[[Hr|[]]|[Hr|[]]]]; discriminate.
Qed.

Lemma prefill_loop_wr fuel x : forall q rq rv alloc ups ls q' ups' ls' used,
  prefill_loop fuel q rq rv alloc ups ls = (q', ups', ls', used) ->
  p_id q' = p_id q /\ exists lnew, ls' = ls ++ lnew /\ (wr q' ups' x -> wr q ups x \/ exists la, In la lnew /\ good (p_id q) x la).
Proof.
  induction fuel as [|k IH]; intros q rq rv alloc ups ls q' ups' ls' used H; cbn [prefill_loop] in H;
    [inversion H; subst; split; [reflexivity | exists []; rewrite app_nil_r; auto]|].
  destruct (pop_last (bl_get (p_backlog q) rq)) as [[t rest]|]; [|inversion H; subst; split; [reflexivity | exists []; rewrite app_nil_r; auto]].
  destruct (bl_has (p_backlog q) rq); [|inversion H; subst; split; [reflexivity | exists []; rewrite app_nil_r; auto]].
  destruct (try_start_task (wp_backlog q (bl_set (p_backlog q) rq rest)) t rv true alloc) as [[[q1 u] l] started] eqn:Et.
  destruct (try_start_wr _ _ _ _ _ _ _ _ _ x Et) as [I1 W1]. cbn [p_id p_running wp_backlog wp_upd] in I1, W1.
  assert (Hone : wr q1 (ups ++ u) x -> wr q ups x \/ exists la, In la l /\ good (p_id q) x la).
  { intros [Hr|Hr]; [destruct (W1 (or_introl Hr)) as [A|X]; [left; left; exact A | right; exact X]|].
    apply rep_app in Hr. destruct Hr as [Hr|Hr]; [left; right; exact Hr|].
    destruct (W1 (or_intror Hr)) as [A|X]; [left; left; exact A | right; exact X]. }
  destruct started; [inversion H; subst; split; [exact I1 | exists l; split; [reflexivity | exact Hone]]|].
  destruct (IH _ _ _ _ _ _ _ _ _ _ H) as (I2 & lnew & E2 & W2). split; [congruence|]. exists (l ++ lnew). split; [rewrite E2, app_assoc; reflexivity|].
  intros Hw. destruct (W2 Hw) as [A|(la & Hl & Hg)].
  - destruct (Hone A) as [B|(la & Hl & Hg)]; [left; exact B|]. right. exists la. split; [apply in_app_iff; left; exact Hl | exact Hg].
  - right. exists la. split; [apply in_app_iff; right; exact Hl | rewrite <- I1; exact Hg].
Qed.

Lemma compute_loop_wr ts x : forall q ups ls q' ups' ls', compute_loop q ts ups ls = Ok (q', ups', ls') ->
  p_id q' = p_id q /\ exists lnew, ls' = ls ++ lnew /\ (wr q' ups' x -> wr q ups x \/ exists la, In la lnew /\ good (p_id q) x la).
Proof.
  induction ts as [|ct r IH]; intros q ups ls q' ups' ls' H; cbn [compute_loop] in H; [inversion H; subst; split; [reflexivity | exists []; rewrite app_nil_r; auto]|].
  assert (Hcont : forall q1 ups1 l1, compute_loop q1 r ups1 (ls ++ l1) = Ok (q', ups', ls') -> p_id q1 = p_id q ->
            (wr q1 ups1 x -> wr q ups x \/ exists la, In la l1 /\ good (p_id q) x la) ->
            p_id q' = p_id q /\ exists lnew, ls' = ls ++ lnew /\ (wr q' ups' x -> wr q ups x \/ exists la, In la lnew /\ good (p_id q) x la)).
  { intros q1 ups1 l1 H1 I1 W1. destruct (IH _ _ _ _ _ _ H1) as (I2 & lnew & E2 & W2). split; [congruence|]. exists (l1 ++ lnew). split; [rewrite E2, app_assoc; reflexivity|].
    intros Hw. destruct (W2 Hw) as [A|(la & Hl & Hg)].
    - destruct (W1 A) as [B|(la & Hl & Hg)]; [left; exact B | right; exists la; split; [apply in_app_iff; left; exact Hl | exact Hg]].
    - right. exists la. split; [apply in_app_iff; right; exact Hl | rewrite <- I1; exact Hg]. }
  destruct (ct_rv ct) as [rv|].
  - apply bind_ok in H. destruct H as (rq & _ & H). destruct (negb (N.eqb rv 0)); [discriminate|].
    destruct (res_fits (p_free q) (rq_res rq)).
    + match type of H with context [try_start_task ?p0 ?t rv false ?a] => destruct (try_start_task p0 t rv false a) as [[[q1 u] l] started] eqn:Et end.
      destruct (try_start_wr _ _ _ _ _ _ _ _ _ x Et) as [I1 W1]. cbn [p_id p_running wp_free wp_upd] in I1, W1.
      assert (Hone : wr q1 (ups ++ u) x -> wr q ups x \/ exists la, In la l /\ good (p_id q) x la).
      { intros [Hr|Hr]; [destruct (W1 (or_introl Hr)) as [A|X]; [left; left; exact A | right; exact X]|].
        apply rep_app in Hr. destruct Hr as [Hr|Hr]; [left; right; exact Hr|].
        destruct (W1 (or_intror Hr)) as [A|X]; [left; left; exact A | right; exact X]. }
      destruct started; [apply (Hcont q1 (ups ++ u) l H I1 Hone)|].
      match type of H with context [prefill_loop ?f q1 ?a ?b ?c ?d ?e] => destruct (prefill_loop f q1 a b c d e) as [[[q2 u2] l2] usd] eqn:Ep end.
      destruct (prefill_loop_wr _ x _ _ _ _ _ _ _ _ _ _ Ep) as (I2 & lnew & E2 & W2). subst l2. rewrite <- app_assoc in H.
      apply (Hcont q2 u2 (l ++ lnew) H); [congruence|]. intros Hw. destruct (W2 Hw) as [A|(la & Hl & Hg)].
      * destruct (Hone A) as [B|(la & Hl & Hg)]; [left; exact B | right; exists la; split; [apply in_app_iff; left; exact Hl | exact Hg]].
      * right. exists la. split; [apply in_app_iff; right; exact Hl | rewrite <- I1; exact Hg].
    + rewrite <- (app_nil_r ls) in H. apply (Hcont _ _ [] H); [reflexivity|]. cbn [p_running wp_blocked wp_upd]. intros [Hr|Hr]; [left; left; exact Hr|].
      apply rep_app in Hr. destruct Hr as [Hr|Hr]; [left; right; exact Hr|]. unfold rep in Hr. cbn [In] in Hr. destruct Hr as [[Hr|[]]|[[Hr|[]]|[Hr|[]]]]; discriminate.
  - rewrite <- (app_nil_r ls) in H. apply (Hcont _ _ [] H); [reflexivity|]. cbn [p_running wp_backlog wp_upd]. intros Hw. left. exact Hw.
Qed.

Definition pw (p : wproc) (x : tid) : Prop := run_find (p_running p) x <> None \/ reports (p_up p) x.

Lemma reports_app a b x : reports (a ++ b) x <-> reports a x \/ reports b x.
Proof.
  unfold reports. split.
  - intros (us & Hin & Hr). apply in_app_iff in Hin. destruct Hin; [left | right]; eauto.
  - intros [(us & Hin & Hr)|(us & Hin & Hr)]; exists us; (split; [apply in_app_iff; auto | exact Hr]).
Qed.

Lemma rep_nil x : ~ rep [] x.
Proof. unfold rep. cbn. tauto. Qed.
Lemma reports_one us x : reports [UUpdates us] x <-> rep us x.
Proof. unfold reports. split; [intros (us0 & [E|[]] & Hr); inversion E; subst; exact Hr | intros Hr; exists us; split; [left; reflexivity | exact Hr]]. Qed.
Lemma reports_rr ids x : ~ reports [URetractResponse ids] x.
Proof. intros (us & [E|[]] & _). discriminate. Qed.

Lemma pwm_wr p m order p' ls x : StronglySorted N.lt (map fst (p_backlog p)) -> process_worker_message p m order = Ok (p', ls) ->
  pw p' x -> pw p x \/ exists la, In la ls /\ good (p_id p) x la.
Proof.
  intros Hs H Hw. destruct m as [ts|ids|ids|w0|w0|rq def|]; cbn [process_worker_message] in H.
  - apply bind_ok in H. destruct H as ([[p1 ups] ls1] & H1 & H).
    destruct (compute_loop_eff _ _ _ _ _ _ _ H1 Hs) as (_ & U1 & _).
    destruct (compute_loop_wr _ x _ _ _ _ _ _ H1) as (_ & lnew & El & W1). cbn [app] in El. subst ls1.
    assert (Hcase : wr p1 ups x \/ reports (p_up p) x /\ ls = lnew).
    { destruct ups as [|u0 ur]; inversion H; subst.
      - destruct Hw as [Hr|Hr]; [left; left; exact Hr | right; rewrite U1 in Hr; auto].
      - destruct Hw as [Hr|Hr]; [left; left; exact Hr|]. unfold send_up in Hr. cbn [p_up wp_up wp_upd] in Hr. rewrite U1 in Hr.
        apply reports_app in Hr. destruct Hr as [Hr|Hr]; [right; auto | left; right; apply reports_one; exact Hr]. }
    assert (El : ls = lnew) by (destruct ups; inversion H; reflexivity). subst lnew.
    destruct Hcase as [Hc|[Hc _]]; [|left; right; exact Hc].
    destruct (W1 Hc) as [[A|A]|X]; [left; left; exact A | exfalso; exact (rep_nil x A) | right; exact X].
  - destruct (negb _); [discriminate|]. destruct (retract_from _ _ _ _) as [b out].
    left. destruct ids; inversion H; subst; destruct Hw as [Hr|Hr]; try (left; exact Hr); try (right; exact Hr).
    unfold send_up in Hr. cbn [p_up wp_up wp_upd wp_backlog] in Hr. apply reports_app in Hr. destruct Hr as [Hr|Hr]; [right; exact Hr | exfalso; exact (reports_rr _ _ Hr)].
  - inversion H; subst. left.
    assert (E : forall l q, p_running (fold_left cancel_task l q) = p_running q /\ p_up (fold_left cancel_task l q) = p_up q).
    { induction l as [|i r IH]; intros q; [auto|]. cbn [fold_left]. destruct (IH (cancel_task q i)) as [A B]. destruct (cancel_task_eff q i) as (U & _ & _ & _ & R & _).
      split; congruence. }
    destruct (E ids p) as [A B]. unfold pw in *. rewrite A, B in Hw. exact Hw.
  - inversion H; subst. left. exact Hw.
  - inversion H; subst. left. exact Hw.
  - destruct (N.eqb _ _); [|discriminate]. inversion H; subst. left. exact Hw.
  - inversion H; subst. left. exact Hw.
Qed.

Lemma run_del_sub l t x : StronglySorted tlt (map fst l) -> run_find (run_del l t) x <> None -> run_find l x <> None.
Proof. intros Hs. rewrite (run_find_del l t x Hs). destruct (tid_eqb x t); [congruence | auto]. Qed.

Lemma task_end_wr p t how p' ls x : StronglySorted tlt (map fst (p_running p)) -> StronglySorted N.lt (map fst (p_backlog p)) -> task_end p t how = Ok (p', ls) ->
  pw p' x -> pw p x \/ exists la, In la ls /\ good (p_id p) x la.
Proof.
  intros Hsr Hs H Hw. unfold task_end in H. destruct (fu_find (p_futures p) t) as [stop|]; [|discriminate].
  destruct (run_find (p_running p) t) as [rv|] eqn:Ert; [|discriminate]. destruct (al_find (p_alloc p) t) as [[|rq alloc]|]; try discriminate.
  match type of H with context [prefill_loop ?f ?q0 ?a ?b ?c ?u0 []] => destruct (prefill_loop f q0 a b c u0 []) as [[[p1 ups1] ls1] usd] eqn:Ep end.
  match type of Ep with prefill_loop _ ?q0 _ _ _ ?u0 [] = _ => set (p0 := q0) in *; set (ups0 := u0) in * end.
  destruct (prefill_loop_eff _ _ _ _ _ _ _ _ _ _ _ Ep Hs) as (_ & U1 & _).
  destruct (prefill_loop_wr _ x _ _ _ _ _ _ _ _ _ _ Ep) as (_ & lnew & El & W1). cbn [app] in El. subst ls1.
  assert (H0 : wr p0 ups0 x -> pw p x).
  { intros [Hr|Hr]; [left; cbn [p0 p_running wp_upd] in Hr; exact (run_del_sub _ _ _ Hsr Hr)|]. left.
    assert (Ex : x = t).
    { subst ups0. unfold rep in Hr. destruct how; [| |destruct stop as [[|]|]]; cbn [In] in Hr;
        intuition (try discriminate); match goal with E : _ = _ |- _ => inversion E; reflexivity end. }
    subst x. rewrite Ert. discriminate. }
  match type of H with (let '(_, _) := ?e in _) = _ => destruct e as [p2 ups2] eqn:E2 end.
  assert (A2 : p_running p2 = p_running p1 /\ p_up p2 = p_up p1 /\ (rep ups2 x -> rep ups1 x)).
  { destruct (negb usd); inversion E2; subst; cbn [p_running p_up wp_blocked wp_upd]; repeat split; auto.
    intros Hr. apply rep_app in Hr. destruct Hr as [Hr|Hr]; [exact Hr|]. exfalso. unfold rep in Hr.
    destruct Hr as [Hr|[Hr|Hr]]; apply in_map_iff in Hr; destruct Hr as (b & E & _); discriminate. }
  destruct A2 as (R2 & U2 & Hrep).
  assert (Hc : wr p1 ups1 x \/ reports (p_up p) x).
  { destruct ups2 as [|u0 ur]; inversion H; subst.
    - destruct Hw as [Hr|Hr]; [left; left; rewrite <- R2; exact Hr | right; rewrite U2, U1 in Hr; exact Hr].
    - destruct Hw as [Hr|Hr]; [left; left; rewrite <- R2; exact Hr|]. unfold send_up in Hr. cbn [p_up wp_up wp_upd] in Hr. rewrite U2, U1 in Hr.
      apply reports_app in Hr. destruct Hr as [Hr|Hr]; [right; exact Hr | left; right; apply Hrep; apply reports_one; exact Hr]. }
  assert (El : ls = lnew) by (destruct ups2; inversion H; reflexivity). subst lnew.
  destruct Hc as [Hc|Hc]; [|left; right; exact Hc].
  destruct (W1 Hc) as [A|X]; [left; exact (H0 A) | right; exact X].
Qed.

Definition RL (s : sys) (outs : list out) : Prop :=
  forall p x, In p (s_procs s) -> pw p x -> exists l, In l (launches outs) /\ good (p_id p) x l.

Lemma RL_more s pre outs : RL s pre -> RL s (pre ++ outs).
Proof. intros H p x Hp Hw. destruct (H p x Hp Hw) as (l & Hl & Hg). exists l. split; [rewrite launches_app; apply in_app_iff; left; exact Hl | exact Hg]. Qed.

Definition frame_up (s s' : sys) : Prop :=
  forall p', In p' (s_procs s') -> exists p, In p (s_procs s) /\ p_id p' = p_id p /\ p_running p' = p_running p /\ forall m, In m (p_up p') -> In m (p_up p).

Lemma RL_frame s s' pre outs : RL s pre -> frame_up s s' -> RL s' (pre ++ outs).
Proof.
  intros HR HF p' x Hp' Hw. destruct (HF p' Hp') as (p & Hp & Ei & Er & Hu).
  assert (Hw0 : pw p x).
  { destruct Hw as [A|(us & Hin & Hr)]; [left; rewrite <- Er; exact A | right; exists us; split; [apply Hu; exact Hin | exact Hr]]. }
  destruct (HR p x Hp Hw0) as (l & Hl & Hg). exists l. split; [rewrite launches_app; apply in_app_iff; left; exact Hl | rewrite Ei; exact Hg].
Qed.

Lemma step_frame_up s o s' outs : server_op o -> INV s -> PROTO s -> PROTO s' -> step s o = Ok (s', outs) -> frame_up s s'.
Proof.
  intros Ho HI HP HP' H. destruct (step_server_PR s o s' outs Ho HI HP H) as (s1 & o1 & Hpop & _ & (_ & P & _)).
  destruct (popped_proc _ _ _ Hpop) as [_ Hproc]. intros p' Hp'.
  destruct (P _ _ (in_find_proc _ _ (pr_sorted _ HP') Hp')) as (p1 & add & X1 & X2 & X3 & X4 & X5 & X6). cbn [fst] in X1.
  destruct (Hproc _ p1 X1) as (p & hd & Hp & _ & Er & _ & Eu). destruct (find_proc_some _ _ _ Hp) as [Hin Hid].
  exists p. split; [exact Hin|]. split; [symmetry; exact Hid|]. split; [congruence|].
  intros m Hm. rewrite Eu. apply in_app_iff. right. rewrite <- X4. exact Hm.
Qed.

Lemma RL_procs s s' pre outs : RL s pre ->
  (forall p', In p' (s_procs s') -> (forall x, ~ pw p' x) \/ exists p, In p (s_procs s) /\ p_id p' = p_id p /\ p_running p' = p_running p /\ p_up p' = p_up p) ->
  RL s' (pre ++ outs).
Proof.
  intros HR HF p' x Hp' Hw. destruct (HF p' Hp') as [Hn|(p & Hp & Ei & Er & Eu)]; [exfalso; exact (Hn x Hw)|].
  assert (Hw0 : pw p x) by (unfold pw in *; rewrite <- Er, <- Eu; exact Hw).
  destruct (HR p x Hp Hw0) as (l & Hl & Hg). exists l. split; [rewrite launches_app; apply in_app_iff; left; exact Hl | rewrite Ei; exact Hg].
Qed.

Lemma RL_worker s pre w p p' ls outs : PROTO s -> RL s pre -> find_proc (s_procs s) w = Some p -> p_id p' = w -> launches outs = ls ->
  (forall x, pw p' x -> pw p x \/ exists la, In la ls /\ good w x la) ->
  RL (with_procs s (set_proc (s_procs s) p')) (pre ++ outs).
Proof.
  intros HP HR Hp Hid El HW q x Hq Hw. cbn [s_procs with_procs] in Hq. destruct (find_proc_some _ _ _ Hp) as [Hin Hidp].
  destruct (in_set_proc _ _ _ Hq) as [->|Hq'].
  - destruct (HW x Hw) as [A|(la & Hl & Hg)].
    + destruct (HR p x Hin A) as (l & Hl & Hg). exists l. split; [rewrite launches_app; apply in_app_iff; left; exact Hl | rewrite Hid, <- Hidp; exact Hg].
    + exists la. split; [rewrite launches_app, El; apply in_app_iff; right; exact Hl | rewrite Hid; exact Hg].
  - destruct (HR q x Hq' Hw) as (l & Hl & Hg). exists l. split; [rewrite launches_app; apply in_app_iff; left; exact Hl | exact Hg].
Qed.

Theorem step_RL s pre o s' outs : INV s -> PROTO s -> PROTO s' -> RL s pre -> step s o = Ok (s', outs) -> RL s' (pre ++ outs).
Proof.
  intros HI HP HP' HR H.
  destruct (server_op_dec o) as [Ho|Hn]; [eapply RL_frame; [exact HR | eapply step_frame_up; eassumption]|].
  set (R := fun a b : st => INV (fst a) -> PROTO (fst a) -> PROTO (fst b) -> RL (fst a) pre -> RL (fst b) (pre ++ snd b)).
  refine (step_walk R (fun o => ~ server_op o) _ _ _ _ _ _ _ _ _ _ _ _ _ _ _ _ s o s' outs Hn H HI HP HP' HR); unfold R; clear; cbn [fst snd];
    try (intros; match goal with Hn : ~ server_op _ |- _ => destruct (Hn I) end). (* the guard excludes the server's entry points *)
  - (* connect *) intros s rs g s' _ H _ _ _ HR. unfold on_new_worker in H. cbv zeta in H. inversion H; subst s'. clear H.
    eapply RL_procs; [exact HR|]. intros p' Hp'. cbn [fst snd emit ask_scheduling st_core with_core with_procs broadcast core_of s_core s_procs s_hq] in Hp'.
    destruct (in_set_proc _ _ _ Hp') as [->|Hq].
    + left. intros x [A|(us & [] & _)]. cbn in A. congruence.
    + right. apply in_map_iff in Hq. destruct Hq as (q & <- & Hin). exists q. split; [exact Hin | cbn; auto].
  - (* lost *) intros s w reason a p t pw [s' outs] _ _ H HI HP HP' HR. pose proof (pr_sorted _ HP') as Hps'.
    destruct (on_remove_worker_EXF (s, []) _ _ _ _ _ (s', outs) (inv_cb _ HI) (pr_sorted _ HP) Hps' H) as (_ & _ & PFL & _). cbn [fst] in PFL.
    eapply RL_procs; [exact HR|]. intros p' Hp'. right. destruct (PFL _ _ (in_find_proc _ _ Hps' Hp')) as (_ & p0 & add & Hf0 & _ & Er & Eu & _).
    exists p0. destruct (find_proc_some _ _ _ Hf0) as [Hin0 Hid0]. split; [exact Hin0|]. split; [congruence|]. auto.
  - intros s o c a _ _ _ _ HR. apply RL_more. exact HR.
  - intros s lj _ _ _ _ _ HR. apply RL_more. exact HR.
  - (* ddown *) intros s w order p m rest p' ls _ Hp Ed Hm _ HP _ HR. destruct (find_proc_some _ _ _ Hp) as [_ Hid].
    assert (Hs : StronglySorted N.lt (map fst (p_backlog (wp_down p rest)))) by (cbn; exact (backlog_sorted s w p HP Hp)).
    eapply (RL_worker s pre w p p' ls); [exact HP | exact HR | exact Hp | rewrite (process_worker_message_id _ _ _ _ _ Hm); exact Hid | cbn; apply launches_map|].
    intros x Hw. destruct (pwm_wr _ _ _ _ _ x Hs Hm Hw) as [A|X]; [left; exact A | right; cbn [p_id wp_down wp_upd] in X; rewrite Hid in X; exact X].
  - (* end *) intros s w t how p p' ls _ Hp Hm _ HP _ HR. destruct (find_proc_some _ _ _ Hp) as [_ Hid].
    eapply (RL_worker s pre w p p' ls); [exact HP | exact HR | exact Hp | rewrite (task_end_id _ _ _ _ _ Hm); exact Hid | apply launches_map|].
    intros x Hw. destruct (task_end_wr _ _ _ _ _ x (lok_sorted _ (proj1 (local_ok_LOK _) (pr_local _ HP _ _ Hp))) (backlog_sorted s w p HP Hp) Hm Hw) as [A|X]; [left; exact A | right; rewrite Hid in X; exact X].
  - (* failnext *) intros s w t p _ Hp _ HP _ HR.
    eapply (RL_worker s pre w p _ []); [exact HP | exact HR | exact Hp | exact (proj2 (find_proc_some _ _ _ Hp)) | reflexivity | intros x Hw; left; exact Hw].
  - (* timer *) intros s _ _ _ _ HR. eapply RL_procs; [exact HR|]. intros p' Hp'. right. cbn [s_procs with_procs] in Hp'.
    apply in_map_iff in Hp'. destruct Hp' as (q & <- & Hin). exists q. split; [exact Hin|].
    destruct (timer_fold_frame (p_timers q) q) as (_ & _ & C). cbv zeta in C. split; [apply fold_timer_id|]. split; [apply timer_fold_running | exact C].
Qed.

Theorem reachable_RL ops : forall reserve maxfill s outs,
  Forall op_wf ops -> ops_ok (init_sys reserve maxfill) ops = true -> run (init_sys reserve maxfill) ops = Ok (s, outs) -> RL s outs.
Proof.
  apply (reachable_ind RL); [intros reserve maxfill p x []|].
  intros s pre o s' outs HR HI _ HP HP' H. exact (step_RL s pre o s' outs HI HP HP' HR H).
Qed.

Theorem reported_means_ran_partial ops reserve maxfill s outs :
  Forall op_wf ops -> ops_ok (init_sys reserve maxfill) ops = true -> run (init_sys reserve maxfill) ops = Ok (s, outs) ->
  forall p x us, In p (s_procs s) ->
    (run_find (p_running p) x <> None \/
     (In (UUpdates us) (p_up p) /\ (In (UFinished x) us \/ In (UFailed x FTask) us \/ In (UFailed x FTimeLimit) us))) ->
    exists a l b, outs = a ++ OLaunch l :: b /\ l_w l = p_id p /\ l_t l = x /\ l_ok l = true.
Proof.
  intros Hwf Hok H p x us Hp Hc.
  assert (Hw : pw p x) by (destruct Hc as [A|[A B]]; [left; exact A | right; exists us; split; [exact A | exact B]]).
  destruct (reachable_RL _ _ _ _ _ Hwf Hok H p x Hp Hw) as (l & Hl & G1 & G2 & G3).
  assert (Hin : In (OLaunch l) outs).
  { clear -Hl. unfold launches in Hl. apply in_flat_map in Hl. destruct Hl as (o & Ho & Hlo). destruct o; cbn in Hlo; try contradiction. destruct Hlo as [<-|[]]. exact Ho. }
  apply in_split in Hin. destruct Hin as (a & b & ->). exists a, l, b. auto.
Qed.

Print Assumptions reported_means_ran_partial.
