(** Protocol invariant, part 6: the server side.  [SP X s pum pd] is [PROTO] generalised to the
    intermediate states of a reactor function:
      [X]   = task ids that are temporarily hidden (their word / job-flag conditions are suspended),
      [pum] = per worker, the messages that are conceptually still at the head of its up channel
              (the message being processed, cut down to what has not been consumed yet),
      [pd]  = the messages the function has decided to send but has not sent yet, in order.
    Generic transitions: sending the first pending message, and a "point" change of the core / the
    job layer / the pending lists that concerns one task. *)
From HQ Require Import Base.Prelude Cluster.Types Cluster.Core Cluster.Reactor Cluster.Worker Cluster.Server Cluster.Sys Cluster.ProofsJob Cluster.ProofsMore Cluster.ProofsWorker Cluster.NoPanicU0 Cluster.NoPanicU1 Cluster.NoPanicU2 Cluster.NoPanicU4 Cluster.NoPanicU5.
From HQ Require Import Cluster.ModelFacts.
From Coq Require Import ZArith Lia Sorting.Sorted.
Local Open Scope N_scope.

Definition msgs_for (w : wid) (pd : list (wid * dmsg)) : list dmsg := map snd (filter (fun x => N.eqb (fst x) w) pd).

Lemma msgs_for_cons w w0 m pd : msgs_for w ((w0, m) :: pd) = if N.eqb w0 w then m :: msgs_for w pd else msgs_for w pd.
Proof. unfold msgs_for. cbn [filter fst]. destruct (N.eqb w0 w); reflexivity. Qed.
Lemma msgs_for_app w a b : msgs_for w (a ++ b) = msgs_for w a ++ msgs_for w b.
Proof. unfold msgs_for. rewrite filter_app, map_app. reflexivity. Qed.
Lemma msgs_for_nil w : msgs_for w [] = [].
Proof. reflexivity. Qed.

(** The state of a task up to the number of unfinished dependencies. *)
Definition nstate (st : tstate) : tstate := match st with Waiting _ => Waiting 0 | x => x end.
Lemma view_nstate st w jr : view_of (nstate st) w jr = view_of st w jr.
Proof. destruct st; reflexivity. Qed.
Lemma nstate_eq st st' : nstate st' = nstate st -> st' = st \/ exists n n', st' = Waiting n' /\ st = Waiting n.
Proof. destruct st', st; cbn [nstate]; intros E; try discriminate E; [right; eauto | left; exact E ..]. Qed.
Lemma mn_task_ok_nstate c c' t t' : c_rqs c' = c_rqs c -> nstate (t_state t') = nstate (t_state t) -> t_rq t' = t_rq t ->
  mn_task_ok c' t' = mn_task_ok c t.
Proof. unfold mn_task_ok. intros -> E ->. destruct (nstate_eq _ _ E) as [->|(n & n' & -> & ->)]; reflexivity. Qed.
Lemma jr_ok_nstate h h' t t' : t_id t' = t_id t -> job_running h' (t_id t) = job_running h (t_id t) ->
  nstate (t_state t') = nstate (t_state t) -> jr_ok h' t' = jr_ok h t.
Proof. unfold jr_ok. intros -> -> E. destruct (nstate_eq _ _ E) as [->|(n & n' & -> & ->)]; reflexivity. Qed.


Definition jv (h : hq) (t : tid) : option (option jstate) :=
  match find_job (h_jobs h) (fst t) with Some j => Some (jt_find (j_tasks j) (snd t)) | None => None end.
Lemma job_running_jv h t : job_running h t = match jv h t with Some (Some JR) => true | _ => false end.
Proof. unfold job_running, jv. destruct (find_job (h_jobs h) (fst t)); reflexivity. Qed.
Lemma seen_jv h t : seen h t = N.ltb (fst t) (h_counter h) && match jv h t with Some (Some _) => true | Some None => false | None => true end.
Proof. unfold seen, jv. destruct (find_job (h_jobs h) (fst t)); reflexivity. Qed.
Definition jactive (o : option (option jstate)) : Prop := o = Some (Some JW) \/ o = Some (Some JR).

(** [hq_chg P h h']: the job layer changed the state of the tasks in [P] only; no job and no task
    id appeared or disappeared. *)
Definition hq_chg (P : tid -> Prop) (h h' : hq) : Prop :=
  h_counter h' = h_counter h /\
  forall t, (~ P t -> jv h' t = jv h t) /\ (jv h t = None <-> jv h' t = None) /\ (jv h t = Some None <-> jv h' t = Some None).
Lemma hq_chg_refl P h : hq_chg P h h.
Proof. split; [reflexivity|]. intros t. repeat split; auto. Qed.
Lemma hq_chg_trans P h1 h2 h3 : hq_chg P h1 h2 -> hq_chg P h2 h3 -> hq_chg P h1 h3.
Proof.
  intros [C1 H1] [C2 H2]. split; [congruence|]. intros t. destruct (H1 t) as (A1 & B1 & D1). destruct (H2 t) as (A2 & B2 & D2).
  split; [intros N; rewrite (A2 N); apply A1; exact N|]. split; [rewrite B1; exact B2 | rewrite D1; exact D2].
Qed.
Lemma hq_chg_weaken (P Q : tid -> Prop) h h' : (forall t, P t -> Q t) -> hq_chg P h h' -> hq_chg Q h h'.
Proof. intros I [C H]. split; [exact C|]. intros t. destruct (H t) as (A & B & D). split; [intros N; apply A; intros X; apply N, I, X | split; assumption]. Qed.
Lemma hq_chg_seen P h h' t : hq_chg P h h' -> seen h t = true -> seen h' t = true.
Proof.
  intros [C H]. rewrite !seen_jv, C, !andb_true_iff. intros [S1 S2]. split; [exact S1|].
  destruct (H t) as (_ & _ & D).
  destruct (jv h' t) as [[v'|]|] eqn:E'; [reflexivity | | reflexivity].
  rewrite (proj2 D eq_refl) in S2. discriminate S2.
Qed.

Definition tsorted (c : core) : Prop := StronglySorted tlt (map t_id (c_tasks c)).

Definition no_pum : wid -> list umsg := fun _ => [].

Record SP (X : tid -> bool) (s : st) (pum : wid -> list umsg) (pd : list (wid * dmsg)) : Prop := mkSP {
  sp_sorted : psorted (s_procs (fst s));
  sp_cs : tsorted (core_of s);
  sp_act : forall x t, find_task (c_tasks (core_of s)) x = Some t -> X x = false -> jactive (jv (hq_of s) x);
  sp_words : forall w p x t, find_proc (s_procs (fst s)) w = Some p -> find_task (c_tasks (core_of s)) x = Some t -> X x = false ->
     lang (view_of (t_state t) w (job_running (hq_of s) x)) (uitems x (pum w ++ p_up p)) (local p x)
          (ditems x (p_down p ++ msgs_for w pd)) = true;
  sp_down : forall w p, find_proc (s_procs (fst s)) w = Some p ->
     down_ok (c_rqs (core_of s)) (N.of_nat (length (p_rqs p))) (p_down p ++ msgs_for w pd) = true;
  sp_tab : forall w p, find_proc (s_procs (fst s)) w = Some p ->
     p_rqs p ++ newrq_defs (p_down p ++ msgs_for w pd) = c_rqs (core_of s);
  sp_local : forall w p, find_proc (s_procs (fst s)) w = Some p -> LOK p;
  sp_seen : forall w p x, find_proc (s_procs (fst s)) w = Some p ->
     In x (proc_tids p) \/ In x (flat_map umsg_tids (pum w)) \/ In x (flat_map dmsg_tids (msgs_for w pd)) ->
     seen (hq_of s) x = true;
  sp_pres : forall x t, find_task (c_tasks (core_of s)) x = Some t -> seen (hq_of s) x = true;
  sp_pum : forall w, pum w <> [] -> find_proc (s_procs (fst s)) w <> None;
  sp_mnrq : mn_rqs_ok (core_of s) = true;
  sp_mnt : forall x t, find_task (c_tasks (core_of s)) x = Some t -> X x = false -> mn_task_ok (core_of s) t = true;
  sp_jr : forall x t, find_task (c_tasks (core_of s)) x = Some t -> X x = false -> jr_ok (hq_of s) t = true;
  sp_rvt : forall x t w rv, find_task (c_tasks (core_of s)) x = Some t -> X x = false -> t_state t = Assigned w rv -> rv = 0;
  sp_rvr : forall r, In r (c_redirects (core_of s)) -> snd (snd r) = 0
}.

Definition x0 : tid -> bool := fun _ => false.
Definition xadd (X : tid -> bool) (id : tid) : tid -> bool := fun i => tid_eqb i id || X i.

Lemma SP_init s o : PROTO s -> tsorted (s_core s) ->
  (forall x t, find_task (c_tasks (s_core s)) x = Some t -> seen (s_hq s) x = true /\ jactive (jv (s_hq s) x)) ->
  SP x0 (s, o) no_pum [].
Proof.
  intros [H9 H1 H2 H3 H4 H5 H6 H7 R1 R2] Hcs Hpa.
  assert (Hpres : forall x t, find_task (c_tasks (s_core s)) x = Some t -> seen (s_hq s) x = true) by (intros x t Hx; exact (proj1 (Hpa x t Hx))).
  constructor; cbn [fst core_of hq_of s_core s_hq s_procs no_pum app]; try assumption.
  - intros x t Hx _. exact (proj2 (Hpa x t Hx)).
  - intros w p x t Hp Ht _. rewrite msgs_for_nil, app_nil_r. eapply H1; eassumption.
  - intros w p Hp. rewrite msgs_for_nil, app_nil_r. specialize (H2 _ _ Hp). unfold rqs_ok in H2. apply andb_true_iff in H2. apply H2.
  - intros w p Hp. rewrite msgs_for_nil, app_nil_r. specialize (H2 _ _ Hp). unfold rqs_ok in H2. apply andb_true_iff in H2.
    apply rqs_eqb_eq. apply H2.
  - intros w p Hp. apply local_ok_LOK. eapply H3; eassumption.
  - intros w p x Hp [Hx|[[]|[]]]. eapply H4; eassumption.
  - intros w Hw. exfalso. apply Hw. reflexivity.
  - intros x t Ht _. eapply H6; eassumption.
  - intros x t Ht _. eapply H7; eassumption.
  - intros x t w rv Ht _ E. eapply R1; eassumption.
Qed.

Lemma SP_final s : SP x0 s no_pum [] -> PROTO (fst s).
Proof.
  intros [H9 Hcs Hact H1 Hd Ht H3 H4 Hpres Hpum H5 H6 H7 R1 R2]. constructor; try assumption.
  - intros w p x t Hp Hx. specialize (H1 w p x t Hp Hx eq_refl). cbn [no_pum app] in H1. rewrite msgs_for_nil, app_nil_r in H1. exact H1.
  - intros w p Hp. specialize (Hd _ _ Hp). specialize (Ht _ _ Hp). rewrite msgs_for_nil, app_nil_r in Hd, Ht.
    unfold rqs_ok. change (s_core (fst s)) with (core_of s). rewrite Hd. apply rqs_eqb_eq. exact Ht.
  - intros w p Hp. apply local_ok_LOK. eapply H3; eassumption.
  - intros w p x Hp Hx. eapply H4; [exact Hp | left; exact Hx].
  - intros x t Hx. eapply H6; [exact Hx | reflexivity].
  - intros x t Hx. eapply H7; [exact Hx | reflexivity].
  - intros x t w rv Hx E. eapply R1; [exact Hx | reflexivity | exact E].
Qed.

Lemma SP_send X s pum w m pd s' : SP X s pum ((w, m) :: pd) -> send_worker s w m = Ok s' -> SP X s' pum pd.
Proof.
  intros [H9 Hcs Hact H1 Hd Ht H3 H4 Hpres Hpum H5 H6 H7 R1 R2] H. unfold send_worker in H.
  destruct (find_proc (s_procs (fst s)) w) as [p0|] eqn:Hp0; [|discriminate]. inversion H; subst s'. clear H.
  destruct (find_proc_some _ _ _ Hp0) as [_ Hid0].
  assert (Hfp : forall w' p, find_proc (set_proc (s_procs (fst s)) (push_down p0 m)) w' = Some p ->
            exists q, find_proc (s_procs (fst s)) w' = Some q /\ p_up p = p_up q /\ p_rqs p = p_rqs q /\ p_running p = p_running q
                      /\ p_backlog p = p_backlog q /\ p_futures p = p_futures q /\ p_alloc p = p_alloc q
                      /\ p_down p ++ msgs_for w' pd = p_down q ++ msgs_for w' ((w, m) :: pd)).
  { intros w' p Hf. rewrite find_set_proc in Hf. cbn [push_down p_id] in Hf. rewrite Hid0 in Hf. rewrite msgs_for_cons, (N.eqb_sym w w').
    destruct (N.eqb w' w) eqn:E.
    - apply N.eqb_eq in E. subst w'. inversion Hf; subst p. exists p0. cbn [push_down p_up p_rqs p_running p_backlog p_futures p_alloc p_down].
      repeat split; try assumption. rewrite <- app_assoc. reflexivity.
    - exists p. repeat split. exact Hf. }
  constructor; cbn [fst snd core_of hq_of with_procs s_core s_hq s_procs] in *; try assumption.
  - apply set_proc_sorted. exact H9.
  - intros w' p x t Hp Hx HX. destruct (Hfp _ _ Hp) as (q & Hq & E1 & E2 & E3 & E4 & E5 & E6 & E7).
    rewrite E7, E1, (local_eq q p x E3 E4). eapply H1; eassumption.
  - intros w' p Hp. destruct (Hfp _ _ Hp) as (q & Hq & E1 & E2 & E3 & E4 & E5 & E6 & E7). rewrite E7, E2. eapply Hd; eassumption.
  - intros w' p Hp. destruct (Hfp _ _ Hp) as (q & Hq & E1 & E2 & E3 & E4 & E5 & E6 & E7). rewrite E7, E2. eapply Ht; eassumption.
  - intros w' p Hp. destruct (Hfp _ _ Hp) as (q & Hq & E1 & E2 & E3 & E4 & E5 & E6 & E7).
    destruct (H3 _ _ Hq) as [L1 L2 L3 L4 L5]. constructor; rewrite ?E3, ?E4, ?E5, ?E6; assumption.
  - intros w' p x Hp Hx. destruct (Hfp _ _ Hp) as (q & Hq & E1 & E2 & E3 & E4 & E5 & E6 & E7).
    apply (H4 w' q x Hq).
    assert (Hd' : In x (flat_map dmsg_tids (p_down p)) \/ In x (flat_map dmsg_tids (msgs_for w' pd)) ->
                  In x (flat_map dmsg_tids (p_down q)) \/ In x (flat_map dmsg_tids (msgs_for w' ((w, m) :: pd)))).
    { rewrite <- !in_app_iff, <- !flat_map_app, E7. auto. }
    unfold proc_tids in *. rewrite E1, E3, E4 in Hx. rewrite !in_app_iff in Hx |- *. clear -Hx Hd'. tauto.
  - intros w' Hw'. specialize (Hpum _ Hw'). rewrite find_set_proc. destruct (N.eqb w' (p_id (push_down p0 m))); [discriminate | exact Hpum].
Qed.

(** * A general change of the core, the job layer, the outputs and the pending lists (the processes
    do not change); the tasks selected by [sp] are treated explicitly, all others keep their view. *)
Lemma SP_gen2 (sp : tid -> bool) X X' s pum pd c' h' o' pum' pd' :
  SP X s pum pd ->
  tsorted c' ->
  c_rqs c' = c_rqs (core_of s) ->
  (forall r, In r (c_redirects c') -> snd (snd r) = 0) ->
  (forall y t', sp y = false -> find_task (c_tasks c') y = Some t' -> X' y = false ->
      exists t, find_task (c_tasks (core_of s)) y = Some t /\ X y = false /\ nstate (t_state t') = nstate (t_state t)
                /\ t_rq t' = t_rq t /\ jv h' y = jv (hq_of s) y) ->
  (forall w y, sp y = false -> uitems y (pum' w) = uitems y (pum w) /\ ditems y (msgs_for w pd') = ditems y (msgs_for w pd)) ->
  (forall y, seen (hq_of s) y = true -> seen h' y = true) ->
  (forall y t', find_task (c_tasks c') y = Some t' -> find_task (c_tasks (core_of s)) y <> None \/ seen h' y = true) ->
  (forall w p y, find_proc (s_procs (fst s)) w = Some p ->
      In y (flat_map umsg_tids (pum' w)) \/ In y (flat_map dmsg_tids (msgs_for w pd')) -> seen (hq_of s) y = true) ->
  (forall w p, find_proc (s_procs (fst s)) w = Some p ->
      down_ok (c_rqs c') (N.of_nat (length (p_rqs p))) (p_down p ++ msgs_for w pd') = true
      /\ newrq_defs (msgs_for w pd') = newrq_defs (msgs_for w pd)) ->
  (forall w, pum' w <> [] -> pum w <> []) ->
  (forall x t', sp x = true -> find_task (c_tasks c') x = Some t' -> X' x = false ->
      jactive (jv h' x) /\ mn_task_ok c' t' = true /\ jr_ok h' t' = true /\ (forall w rv, t_state t' = Assigned w rv -> rv = 0) /\
      forall w p, find_proc (s_procs (fst s)) w = Some p ->
        lang (view_of (t_state t') w (job_running h' x)) (uitems x (pum' w ++ p_up p)) (local p x)
             (ditems x (p_down p ++ msgs_for w pd')) = true) ->
  SP X' (mkSys c' h' (s_procs (fst s)), o') pum' pd'.
Proof.
  intros [H9 Hcs Hact H1 Hd Ht H3 H4 Hpres Hpum H5 H6 H7 R1 R2] Hcs' Erq Hred Hoth Hitems Hseen Hsub Hnew Htab Hpm Hx.
  assert (Hjr : forall y t' (t : task), sp y = false -> find_task (c_tasks c') y = Some t' -> X' y = false -> job_running h' y = job_running (hq_of s) y).
  { intros y t' _ E Hy HX'. destruct (Hoth y t' E Hy HX') as (t & _ & _ & _ & _ & Ej). rewrite !job_running_jv, Ej. reflexivity. }
  constructor; cbn [fst snd core_of hq_of s_core s_hq s_procs]; try assumption.
  - intros y t' Hy HX'. destruct (sp y) eqn:E.
    + exact (proj1 (Hx y t' E Hy HX')).
    + destruct (Hoth y t' E Hy HX') as (t & Hf & HXy & _ & _ & Ej). rewrite Ej. eapply Hact; eassumption.
  - intros w p y t' Hp Hy HX'. destruct (sp y) eqn:E.
    + destruct (Hx y t' E Hy HX') as (_ & _ & _ & _ & Hl). apply Hl. exact Hp.
    + destruct (Hoth y t' E Hy HX') as (t & Hf & HXy & Est & _ & Ejv).
      destruct (Hitems w y E) as [Eu Edd].
      rewrite uitems_app, ditems_app, Eu, Edd, <- uitems_app, <- ditems_app, (Hjr y t' t E Hy HX'), <- view_nstate, Est, view_nstate.
      eapply H1; eassumption.
  - intros w p Hp. exact (proj1 (Htab _ _ Hp)).
  - intros w p Hp. rewrite Erq. unfold newrq_defs. rewrite flat_map_app. fold (newrq_defs (p_down p)). fold (newrq_defs (msgs_for w pd')).
    rewrite (proj2 (Htab _ _ Hp)). specialize (Ht _ _ Hp). unfold newrq_defs in Ht. rewrite flat_map_app in Ht. exact Ht.
  - intros w p y Hp [Hy|Hy]; apply Hseen; [eapply H4; [exact Hp | left; exact Hy] | eapply Hnew; eassumption].
  - intros y t' Hy. destruct (Hsub _ _ Hy) as [Hne|Hsn]; [|exact Hsn]. apply Hseen.
    destruct (find_task (c_tasks (core_of s)) y) as [t|] eqn:Ef; [eapply Hpres; exact Ef | exfalso; exact (Hne eq_refl)].
  - intros w Hw. apply Hpum. apply Hpm. exact Hw.
  - unfold mn_rqs_ok in *. rewrite Erq. exact H5.
  - intros y t' Hy HX'. destruct (sp y) eqn:E.
    + exact (proj1 (proj2 (Hx y t' E Hy HX'))).
    + destruct (Hoth y t' E Hy HX') as (t & Hf & HXy & Est & Er & _).
      rewrite (mn_task_ok_nstate _ _ _ _ Erq Est Er). exact (H6 _ _ Hf HXy).
  - intros y t' Hy HX'. destruct (sp y) eqn:E.
    + exact (proj1 (proj2 (proj2 (Hx y t' E Hy HX')))).
    + destruct (Hoth y t' E Hy HX') as (t & Hf & HXy & Est & _ & Ejv).
      destruct (find_task_some _ _ _ Hy) as [_ Ey]. destruct (find_task_some _ _ _ Hf) as [_ Ey0].
      rewrite (jr_ok_nstate (hq_of s) h' t t'); [exact (H7 _ _ Hf HXy) | congruence | rewrite Ey0; exact (Hjr y t' t E Hy HX') | exact Est].
  - intros y t' w rv Hy HX' Est'. destruct (sp y) eqn:E.
    + destruct (Hx y t' E Hy HX') as (_ & _ & _ & Hr & _). eapply Hr; exact Est'.
    + destruct (Hoth y t' E Hy HX') as (t & Hf & HXy & Est & _).
      destruct (nstate_eq _ _ Est) as [E1|(n & n' & E1 & _)]; [|congruence]. rewrite E1 in Est'. eapply R1; eassumption.
Qed.

Lemma SP_gen (sp : tid -> bool) X X' s pum pd c' h' o' pum' pd' :
  SP X s pum pd ->
  tsorted c' ->
  c_rqs c' = c_rqs (core_of s) ->
  (forall r, In r (c_redirects c') -> snd (snd r) = 0) ->
  (forall y t', sp y = false -> find_task (c_tasks c') y = Some t' -> X' y = false ->
      exists t, find_task (c_tasks (core_of s)) y = Some t /\ X y = false /\ nstate (t_state t') = nstate (t_state t)
                /\ t_rq t' = t_rq t /\ jv h' y = jv (hq_of s) y) ->
  (forall w y, sp y = false -> uitems y (pum' w) = uitems y (pum w) /\ ditems y (msgs_for w pd') = ditems y (msgs_for w pd)) ->
  (forall y, seen (hq_of s) y = true -> seen h' y = true) ->
  (forall y t', find_task (c_tasks c') y = Some t' -> find_task (c_tasks (core_of s)) y <> None) ->
  (forall w p y, find_proc (s_procs (fst s)) w = Some p ->
      In y (flat_map umsg_tids (pum' w)) \/ In y (flat_map dmsg_tids (msgs_for w pd')) -> seen (hq_of s) y = true) ->
  (forall w p, find_proc (s_procs (fst s)) w = Some p ->
      down_ok (c_rqs c') (N.of_nat (length (p_rqs p))) (p_down p ++ msgs_for w pd') = true
      /\ newrq_defs (msgs_for w pd') = newrq_defs (msgs_for w pd)) ->
  (forall w, pum' w <> [] -> pum w <> []) ->
  (forall x t', sp x = true -> find_task (c_tasks c') x = Some t' -> X' x = false ->
      jactive (jv h' x) /\ mn_task_ok c' t' = true /\ jr_ok h' t' = true /\ (forall w rv, t_state t' = Assigned w rv -> rv = 0) /\
      forall w p, find_proc (s_procs (fst s)) w = Some p ->
        lang (view_of (t_state t') w (job_running h' x)) (uitems x (pum' w ++ p_up p)) (local p x)
             (ditems x (p_down p ++ msgs_for w pd')) = true) ->
  SP X' (mkSys c' h' (s_procs (fst s)), o') pum' pd'.
Proof.
  intros HS Hcs' Erq Hred Hoth Hitems Hseen Hsub Hnew Htab Hpm Hx.
  apply (SP_gen2 sp X X' s pum pd c' h' o' pum' pd' HS Hcs' Erq Hred Hoth Hitems Hseen); try assumption.
  intros y t' Hy. left. eapply Hsub. exact Hy.
Qed.

Lemma SP_core X X' s pum pd c' :
  SP X s pum pd ->
  tsorted c' ->
  c_rqs c' = c_rqs (core_of s) ->
  (forall r, In r (c_redirects c') -> In r (c_redirects (core_of s))) ->
  (forall y t', find_task (c_tasks c') y = Some t' -> X' y = false ->
      exists t, find_task (c_tasks (core_of s)) y = Some t /\ X y = false /\ nstate (t_state t') = nstate (t_state t) /\ t_rq t' = t_rq t) ->
  (forall y t', find_task (c_tasks c') y = Some t' -> find_task (c_tasks (core_of s)) y <> None) ->
  SP X' (st_core s c') pum pd.
Proof.
  intros H Hcs Erq Hred Hoth Hsub. destruct s as [[c h ps] o].
  apply (SP_gen (fun _ => false) X X' ((mkSys c h ps), o) pum pd c' h o pum pd H Hcs Erq).
  - intros r Hr. apply (sp_rvr _ _ _ _ H). apply Hred. exact Hr.
  - intros y t' _ Hy HX'. destruct (Hoth y t' Hy HX') as (t & A & B & C & D). exists t. repeat split; assumption.
  - intros w y _. split; reflexivity.
  - auto.
  - exact Hsub.
  - intros w p y Hp Hy. eapply (sp_seen _ _ _ _ H); [exact Hp | right; exact Hy].
  - intros w p Hp. split; [|reflexivity]. rewrite Erq. eapply (sp_down _ _ _ _ H). exact Hp.
  - auto.
  - intros x t' E. discriminate.
Qed.

Lemma SP_outs X s pum pd o' : SP X s pum pd -> SP X (fst s, o') pum pd.
Proof. intros [H9 Hcs Hact H1 Hd Ht H3 H4 Hpres Hpum H5 H6 H7 R1 R2]. constructor; assumption. Qed.
Lemma SP_emit X s pum pd o : SP X s pum pd -> SP X (emit s o) pum pd.
Proof. apply SP_outs. Qed.
Lemma SP_ask X s pum pd : SP X s pum pd -> SP X (ask_scheduling s) pum pd.
Proof.
  intros H. unfold ask_scheduling. apply (SP_core X X s pum pd); [exact H | exact (sp_cs _ _ _ _ H) | reflexivity | auto | | ].
  - intros y t' Hy HX. exists t'. repeat split; assumption.
  - intros y t' Hy. unfold core_of in *. cbn [with_flag c_tasks] in Hy. congruence.
Qed.

Lemma SP_hq X s pum pd h' o' :
  SP X s pum pd ->
  (forall y t, find_task (c_tasks (core_of s)) y = Some t -> X y = false -> jv h' y = jv (hq_of s) y) ->
  (forall y, seen (hq_of s) y = true -> seen h' y = true) ->
  SP X (mkSys (core_of s) h' (s_procs (fst s)), o') pum pd.
Proof.
  intros H Hjr Hseen.
  apply (SP_gen (fun _ => false) X X s pum pd (core_of s) h' o' pum pd H (sp_cs _ _ _ _ H) eq_refl).
  - exact (sp_rvr _ _ _ _ H).
  - intros y t' _ Hy HX'. exists t'. repeat split; try assumption. eapply Hjr; eassumption.
  - intros w y _. split; reflexivity.
  - exact Hseen.
  - intros y t' Hy. congruence.
  - intros w p y Hp Hy. eapply (sp_seen _ _ _ _ H); [exact Hp | right; exact Hy].
  - intros w p Hp. split; [|reflexivity]. eapply (sp_down _ _ _ _ H). exact Hp.
  - auto.
  - intros x t' E. discriminate.
Qed.
