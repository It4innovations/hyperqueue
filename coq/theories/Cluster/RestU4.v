(** C02 "at rest": where a Running state comes from.  Relation [RO T c c'] (walked like
    [ExecU2.TT], without the scheduling round, which is covered by [ExecU3.SR]): a task of
    [c'] that runs on root worker [w] ([Running w _] or [RunningMN (w :: _)]) is a task of [c] that
    ran on root [w], or is in the trigger set [T] with worker [w] (a running message of [w] is
    being processed). *)
From HQ Require Import Base.Prelude Cluster.Types Cluster.Core Cluster.Reactor Cluster.ProofsStep Cluster.BijCore Cluster.BijHq Cluster.BijSt Cluster.BijReact Cluster.InvWX1 Cluster.NoPanicL0 Cluster.Server Cluster.BijBase Cluster.NoPanicC2 Cluster.Sys Cluster.StepShape.
From HQ Require Import Cluster.ReactSplit.
From HQ Require Import Cluster.RejHyp.
From HQ Require Import Cluster.ModelFacts.
From Coq Require Import ZArith.
Local Open Scope N_scope.

Arguments N.add : simpl never.
Arguments N.sub : simpl never.

Definition rroot (st : tstate) : option wid :=
  match st with Running w _ => Some w | RunningMN (w :: _) => Some w | _ => None end.

Definition rcond (T : tid -> wid -> Prop) (t x : task) : Prop :=
  forall w, rroot (t_state x) = Some w -> rroot (t_state t) = Some w \/ T (t_id x) w.

Definition RO (T : tid -> wid -> Prop) (c c' : core) : Prop :=
  forall t' w, In t' (c_tasks c') -> rroot (t_state t') = Some w ->
    (exists t, In t (c_tasks c) /\ t_id t = t_id t' /\ rroot (t_state t) = Some w) \/ T (t_id t') w.

Section Blocks.
Context {T : tid -> wid -> Prop}.

Lemma RO_refl c : RO T c c.
Proof. intros t w Hin Hw. left. exists t. auto. Qed.

Lemma RO_trans c1 c2 c3 : RO T c1 c2 -> RO T c2 c3 -> RO T c1 c3.
Proof.
  intros A B t3 w H3 Hw. destruct (B t3 w H3 Hw) as [(t2 & H2 & Ei & R2)|X]; [|right; exact X].
  destruct (A t2 w H2 R2) as [(t1 & H1 & Ei1 & R1)|Y]; [left; exists t1; split; [exact H1|]; split; [congruence | exact R1] | right; rewrite <- Ei; exact Y].
Qed.

Lemma RO_tasks c c' : c_tasks c' = c_tasks c -> RO T c c'.
Proof. intros E t w H Hw. rewrite E in H. left. exists t. auto. Qed.

Lemma RO_set c c' x t : c_tasks c' = set_task (c_tasks c) x -> In t (c_tasks c) -> t_id x = t_id t -> rcond T t x -> RO T c c'.
Proof.
  intros E Hin Ei Hc t' w H Hw. rewrite E in H. destruct (set_task_in _ _ _ H) as [->|Hin'].
  - destruct (Hc w Hw) as [X|X]; [left; exists t; auto | right; exact X].
  - left. exists t'. auto.
Qed.

Lemma RO_new c c' x : c_tasks c' = set_task (c_tasks c) x -> rroot (t_state x) = None -> RO T c c'.
Proof.
  intros E Hn t' w H Hw. rewrite E in H. destruct (set_task_in _ _ _ H) as [->|Hin']; [congruence|]. left. exists t'. auto.
Qed.

Lemma RO_sub c c' : (forall t', In t' (c_tasks c') -> exists t, In t (c_tasks c) /\ t_id t = t_id t' /\ t_state t = t_state t' /\ t_inst t = t_inst t') -> RO T c c'.
Proof.
  intros H t' w Hin Hw. destruct (H t' Hin) as (t & H1 & Ei & Es & _). left. exists t. split; [exact H1|]. split; [exact Ei|]. rewrite Es. exact Hw.
Qed.
End Blocks.

Ltac ro_pre := repeat match goal with H : get_task _ _ = Ok _ |- _ => apply get_task_find in H end.
Ltac ro_cond :=
  unfold rcond; cbn [t_state t_id with_state with_inst with_crash with_consumers with_deps rroot]; intros ?w ?Hr;
  first [ discriminate | left; assumption
        | left; match goal with E : t_state _ = _ |- _ => rewrite E; cbn [rroot]; assumption end
        | right; assumption
        | match goal with H : Some _ = Some _ |- _ => injection H as <- end; right; assumption
        | auto ].
Ltac ro_set :=
  ro_pre;
  match goal with
  | H : find_task _ _ = Some ?t |- RO _ _ _ =>
      solve [ eapply (RO_set _ _ _ t); [ reflexivity | exact (find_in _ _ _ H) | reflexivity | ro_cond ] ]
  end.

Section Pass.
Context {T : tid -> wid -> Prop}.

Lemma retract_states_RO ids : forall c acc c' acc', retract_states c ids acc = Ok (c', acc') -> RO T c c'.
Proof.
  induction ids as [|id r IH]; cbn [retract_states]; intros c acc c' acc' H; [inversion H; subst; apply RO_refl|].
  apply bind_ok in H. destruct H as (t & Ht & H).
  destruct (t_state t) eqn:Est; try discriminate.
  apply bind_ok in H. destruct H as (wk & Hw & H). apply bind_ok in H. destruct H as (wk' & ?X & H).
  eapply RO_trans; [|eapply IH; exact H].
  ro_set.
Qed.

Lemma process_retracted_RO s r s' : process_retracted s r = Ok s' -> RO T (core_of s) (core_of s').
Proof.
  unfold process_retracted. intros H. destruct r; [inversion H; subst; apply RO_refl|].
  apply bind_ok in H. destruct H as ([c' groups] & H1 & H). rewrite (send_all_core _ _ _ H).
  eapply retract_states_RO; exact H1.
Qed.

Lemma cancel_release_RO ids : forall s tu ru s' tu' ru', cancel_release s ids tu ru = Ok (s', tu', ru') -> RO T (core_of s) (core_of s').
Proof.
  induction ids as [|id r IH]; intros s tu ru s' tu' ru' H; [cbn [cancel_release] in H; inversion H; subst; apply RO_refl|].
  destruct (cancel_release_step _ _ _ _ _ _ H) as [[_ H1] | (t & rq & c1 & s1 & tu1 & ru1 & _ & _ & _ & Hrel & E & H1)]; [eapply IH; exact H1|].
  eapply RO_trans; [|eapply IH; exact H1]. apply RO_tasks. destruct E as [-> | ->]; exact (released_tasks _ _ _ _ _ Hrel).
Qed.

Lemma remove_task_RO c id c' stt : remove_task c id = Ok (c', stt) -> RO T c c'.
Proof.
  intros H. unfold remove_task in H. destruct (find_task (c_tasks c) id) as [t|]; [|discriminate].
  assert (R0 : forall c1, c_tasks c1 = del_task (c_tasks c) id -> RO T c c1).
  { intros c1 E. apply RO_sub. intros t' Hin. rewrite E in Hin. exists t'. split; [eapply del_task_in; exact Hin | auto]. }
  destruct (t_state t); try (inversion H; subst; apply R0; reflexivity).
  apply bind_ok in H. destruct H as (c2 & H2 & H).
  assert (T2 : c_tasks c2 = del_task (c_tasks c) id).
  { destruct (N.eqb unfinished_deps 0); [inv_binds H2|]; inversion H2; subst; auto. }
  destruct (N.ltb 0 unfinished_deps); [|inversion H; subst; apply R0; assumption].
  apply bind_ok in H. destruct H as (ts & Hr & H). inversion H; subst.
  eapply RO_trans; [apply (R0 c2); assumption|].
  apply RO_sub. intros t' Hin. eapply remove_consumer_from_in; [exact Hr | exact Hin].
Qed.

Lemma remove_tasks_batched_RO ids : forall c c', remove_tasks_batched c ids = Ok c' -> RO T c c'.
Proof.
  induction ids as [|id r IH]; cbn [remove_tasks_batched]; intros c c' H; [inversion H; subst; apply RO_refl|].
  apply bind_ok in H. destruct H as ([c1 stt] & H1 & H). eapply RO_trans; [eapply remove_task_RO; exact H1 | eapply IH; exact H].
Qed.

Lemma remove_waiting_consumers_RO l : forall c c', remove_waiting_consumers c l = Ok c' -> RO T c c'.
Proof.
  induction l as [|id r IH]; cbn [remove_waiting_consumers]; intros c c' H; [inversion H; subst; apply RO_refl|].
  apply bind_ok in H. destruct H as ([c1 stt] & H1 & H). destruct stt; try discriminate.
  eapply RO_trans; [eapply remove_task_RO; exact H1 | eapply IH; exact H].
Qed.

Lemma on_cancel_tasks_RO s ids s' : on_cancel_tasks s ids = Ok s' -> RO T (core_of s) (core_of s').
Proof.
  intros H. unfold on_cancel_tasks in H.
  apply bind_ok in H. destruct H as ([[s1 tu] ru] & H1 & H). apply bind_ok in H. destruct H as (c' & H2 & H).
  rewrite (send_all_core _ _ _ H).
  eapply RO_trans; [eapply cancel_release_RO; exact H1 | eapply remove_tasks_batched_RO; exact H2].
Qed.

Lemma task_failed_RO s w id k s' : task_failed s w id k = Ok s' -> RO T (core_of s) (core_of s').
Proof.
  intros H. unfold task_failed in H.
  destruct (find_task (c_tasks (core_of s)) id) as [t|]; [|inversion H; subst; apply RO_refl].
  apply bind_ok in H. destruct H as (rq & ?X & H). apply bind_ok in H. destruct H as (c1 & H1 & H).
  assert (R1 : RO T (core_of s) c1).
  { destruct (failed_release _ _ _ _ _ _ H1) as [Hrel | (-> & _)]; [apply RO_tasks; exact (released_tasks _ _ _ _ _ Hrel) | apply RO_refl]. }
  apply bind_ok in H. destruct H as (csm & ?X & H).
  apply bind_ok in H. destruct H as (c2 & H2 & H).
  apply bind_ok in H. destruct H as ([c3 stt] & H3 & H).
  apply bind_ok in H. destruct H as (u & ?X & H).
  apply bind_ok in H. destruct H as ([s1 cancel_ids] & H4 & H).
  pose proof (f_equal fst (process_task_failed_CP _ _ _ _ _ _ H4)) as C4. cbn in C4.
  assert (R3 : RO T (core_of s) (core_of s1)).
  { rewrite C4. eapply RO_trans; [exact R1|]. eapply RO_trans; [eapply remove_waiting_consumers_RO; exact H2 | eapply remove_task_RO; exact H3]. }
  destruct cancel_ids; [inversion H; subst; exact R3|].
  eapply RO_trans; [exact R3 | eapply on_cancel_tasks_RO; exact H].
Qed.

Lemma wake_consumers_RO csm : forall c ret c' ret', wake_consumers c csm ret = Ok (c', ret') -> RO T c c'.
Proof.
  induction csm as [|x r IH]; cbn [wake_consumers]; intros c ret c' ret' H; [inversion H; subst; apply RO_refl|].
  apply bind_ok in H. destruct H as (t & Ht & H).
  destruct (t_state t) as [n| | | | | |] eqn:Est; try discriminate. destruct (N.eqb n 0); [discriminate|].
  assert (R1 : forall qs, RO T c (with_queues (upd_task c (with_state t (Waiting (n - 1)))) qs)).
  { intros qs. ro_set. }
  destruct (N.eqb (n - 1) 0).
  - apply bind_ok in H. destruct H as ([qs rt] & ?X & H). eapply RO_trans; [apply (R1 qs) | eapply IH; exact H].
  - eapply RO_trans; [apply (R1 (c_queues c)) | eapply IH; exact H].
Qed.

Lemma task_finished_RO s w id s' b : task_finished s w id = Ok (s', b) -> RO T (core_of s) (core_of s').
Proof.
  intros H. unfold task_finished in H.
  destruct (find_task (c_tasks (core_of s)) id) as [t|] eqn:Ef; [|inversion H; subst; apply RO_refl].
  apply bind_ok in H. destruct H as (rq & ?X & H). apply bind_ok in H. destruct H as (c1 & H1 & H).
  pose proof (released_tasks _ _ _ _ _ (finished_release _ _ _ _ _ _ H1)) as Et.
  cbv zeta in H.
  apply bind_ok in H. destruct H as (s1 & Hf & H).
  destruct (process_task_finished_active _ _ _ Hf) as [C1 _]. unfold core_same in C1. cbn in C1.
  apply bind_ok in H. destruct H as ([c3 retracted] & Hw & H).
  apply bind_ok in H. destruct H as (s2 & Hr & H).
  apply bind_ok in H. destruct H as ([c4 stt] & Hrm & H).
  destruct stt; try discriminate. inversion H; subst.
  change (RO T (core_of s) c4).
  eapply RO_trans; [apply (RO_tasks (core_of s) c1 Et)|].
  eapply RO_trans; [eapply (RO_set c1 (upd_task c1 (with_state t Finished)) (with_state t Finished) t); [reflexivity | rewrite Et; exact (find_in _ _ _ Ef) | reflexivity | ro_cond]|].
  rewrite <- C1. eapply RO_trans; [eapply wake_consumers_RO; exact Hw|].
  eapply RO_trans; [exact (process_retracted_RO (st_core s1 c3) _ _ Hr) | eapply remove_task_RO; exact Hrm].
Qed.

Definition runs (x : tid) (us : list wupdate) : Prop := exists rv, In (URunning x rv) us \/ In (URunningPrefilled x rv) us.

Lemma task_running_RO s w id rv s' b : T id w -> task_running s w id rv = Ok (s', b) -> RO T (core_of s) (core_of s').
Proof.
  intros HT H. unfold task_running in H.
  destruct (find_task (c_tasks (core_of s)) id) as [t|] eqn:Eft; [|inversion H; subst; apply RO_refl].
  rewrite <- (proj2 (find_task_some _ _ _ Eft)) in HT.
  apply bind_ok in H. destruct H as (rq & ?X & H). apply bind_ok in H. destruct H as ([s1 ws] & H1 & H).
  apply bind_ok in H. destruct H as (s2 & H2 & H). inversion H; subst s' b.
  destruct (process_task_started_active _ _ _ _ _ _ H2) as [C2 _]. unfold core_same in C2. rewrite C2. clear H2 C2 H.
  destruct (t_state t) as [n|w1 rv1|w1|w1|w1 rv1|wsx|]; try discriminate.
  - destruct (negb (N.eqb w1 w)); [discriminate|]. destruct (negb (N.eqb rv1 rv)); [discriminate|]. inversion H1; subst s1 ws.
    ro_set.
  - destruct (negb (N.eqb w1 w)); [discriminate|]. inv_binds H1. inversion H1; subst s1 ws.
    ro_set.
  - destruct (negb (N.eqb w1 w)); [discriminate|].
    apply bind_ok in H1. destruct H1 as (c1 & Hc1 & H1). inv_binds H1. inversion H1; subst s1 ws.
    pose proof (try_remove_redirection_tasks _ _ _ Hc1) as Et1. cbn [c_tasks ask_scheduling core_of st_core with_core with_flag s_core fst] in Et1.
    eapply (RO_set _ _ (with_state t (Running w rv)) t); [cbn [c_tasks upd_worker upd_task with_workers with_tasks core_of st_core with_core s_core fst]; rewrite Et1; reflexivity
      | exact (find_in _ _ _ Eft) | reflexivity | ro_cond].
  - destruct wsx; [discriminate|]. destruct (N.eqb w0 w); [|discriminate]. inversion H1; subst s1 ws. apply RO_refl.
Qed.

Lemma requeue_RO s t c1 s' b : In t (c_tasks c1) ->
  (do (qs, ret) <- add_ready_task (c_queues c1) (with_state t (Waiting 0));
   do s'' <- process_retracted (st_core s (with_queues (upd_task c1 (with_state t (Waiting 0))) qs)) ret;
   Ok (s'', true)) = Ok (s', b) -> RO T c1 (core_of s').
Proof.
  intros Hin H. apply bind_ok in H. destruct H as ([qs ret] & ?X & H). apply bind_ok in H. destruct H as (s2 & Hr & H). inversion H; subst.
  eapply RO_trans; [|exact (process_retracted_RO _ _ _ Hr)].
  eapply (RO_set _ _ (with_state t (Waiting 0)) t); [reflexivity | exact Hin | reflexivity | ro_cond].
Qed.

Lemma task_reject_RO s w id rv s' b : task_reject s w id rv = Ok (s', b) -> RO T (core_of s) (core_of s').
Proof.
  intros H. unfold task_reject in H. set (c := core_of s) in *.
  destruct (find_task (c_tasks c) id) as [t|] eqn:Eft; [|inversion H; subst; apply RO_refl].
  destruct (find_task_some _ _ _ Eft) as [Hin Hid].
  apply bind_ok in H. destruct H as (wk & ?X & H). cbv zeta in H.
  match type of H with context [upd_worker c ?k] => set (wk1 := k) in * end.
  apply bind_ok in H. destruct H as (rq & ?X & H).
  destruct (t_state t) as [n|w1 rv1|w1|w1|w1 rv1|wsx|];
    try (apply bind_ok in H; destruct H as (r0 & Hr0 & _); discriminate).
  - apply bind_ok in H. destruct H as ([c1 cont] & Hr & H).
    assert (Et1 : c_tasks c1 = c_tasks c).
    { destruct (negb (N.eqb w w1)); [inversion Hr; subst; reflexivity|].
      destruct rv as [v|]; [|inversion Hr; subst; reflexivity].
      destruct (N.eqb v rv1); [|inversion Hr; subst; reflexivity].
      inv_binds Hr. inversion Hr; subst. reflexivity. }
    eapply RO_trans; [apply (RO_tasks c c1 Et1)|]. eapply requeue_RO; [rewrite Et1; exact Hin | exact H].
  - apply bind_ok in H. destruct H as ([c1 cont] & Hr & H).
    assert (Et1 : c_tasks c1 = c_tasks c) by (inv_binds Hr; inversion Hr; subst; reflexivity).
    eapply RO_trans; [apply (RO_tasks c c1 Et1)|]. eapply requeue_RO; [rewrite Et1; exact Hin | exact H].
  - apply bind_ok in H. destruct H as ([c1 cont] & Hr & H).
    assert (E1 : c1 = upd_worker c wk1) by (destruct (negb (N.eqb w w1)); inversion Hr; reflexivity). subst c1.
    eapply RO_trans; [apply (RO_tasks c (upd_worker c wk1) eq_refl)|].
    destruct cont.
    + destruct (find_redirect (c_redirects (upd_worker c wk1)) id) as [[target rvt]|].
      * apply bind_ok in H. destruct H as (s1 & Hs1 & H). inversion H; subst s' b.
        rewrite (send_worker_core _ _ _ _ Hs1).
        eapply (RO_set _ _ (with_state t (Assigned target rvt)) t); [reflexivity | exact Hin | reflexivity | ro_cond].
      * eapply requeue_RO; [exact Hin | exact H].
    + inversion H; subst. apply RO_refl.
Qed.

Lemma request_enabled_RO s w rq rv s' : request_enabled s w rq rv = Ok s' -> RO T (core_of s) (core_of s').
Proof.
  intros H. unfold request_enabled in H. apply bind_ok in H. destruct H as (wk & ?X & H). inversion H; subst s'.
  apply RO_tasks; reflexivity.
Qed.

Lemma on_task_update_RO s w us s' : (forall x, runs x us -> T x w) -> on_task_update s w us = Ok s' -> RO T (core_of s) (core_of s').
Proof.
  intros HT. apply (on_task_update_rel_of (fun a b => RO T (core_of a) (core_of b)) (fun u => forall x, runs x [u] -> T x w) w).
  - intros a. apply RO_refl.
  - intros a b c. apply RO_trans.
  - intros a u a' n Hq Hu. destruct u; cbn [apply_one] in Hu.
    + eapply task_finished_RO; exact Hu.
    + apply bind_ok in Hu. destruct Hu as (sx & Hf & Hu). inversion Hu; subst. eapply task_failed_RO; exact Hf.
    + eapply task_running_RO; [apply Hq; exists rv; left; left; reflexivity | exact Hu].
    + eapply task_running_RO; [apply Hq; exists rv; right; left; reflexivity | exact Hu].
    + eapply task_reject_RO; exact Hu.
    + apply bind_ok in Hu. destruct Hu as (sx & Hf & Hu). inversion Hu; subst. eapply request_enabled_RO; exact Hf.
  - intros a. apply RO_tasks; reflexivity.
  - apply Forall_forall. intros u Hu x (rv & [[->|[]]|[->|[]]]); apply HT; exists rv; [left | right]; exact Hu.
Qed.

Lemma retract_response_states_RO ids : forall c w acc c' acc', retract_response_states c w ids acc = (c', acc') -> RO T c c'.
Proof.
  induction ids as [|id r IH]; cbn [retract_response_states]; intros c w acc c' acc' H; [inversion H; subst; apply RO_refl|].
  destruct (find_task (c_tasks c) id) as [t|] eqn:Eft; [|eapply IH; exact H].
  destruct (find_task_some _ _ _ Eft) as [Hin Hid].
  destruct (t_state t); try (eapply IH; exact H).
  destruct (N.eqb w w0); [|eapply IH; exact H].
  destruct (find_redirect (c_redirects c) id) as [[target rv]|].
  - eapply RO_trans; [|eapply IH; exact H]. ro_set.
  - eapply RO_trans; [|eapply IH; exact H].
    eapply (RO_set _ _ (with_state t (Waiting 0)) t); [reflexivity | exact Hin | reflexivity | ro_cond].
Qed.

Lemma on_retract_response_RO s w ids s' : on_retract_response s w ids = Ok s' -> RO T (core_of s) (core_of s').
Proof.
  unfold on_retract_response. intros H. destruct (retract_response_states _ w ids []) as [c' groups] eqn:E.
  apply bind_ok in H. destruct H as (s2 & H & H2).
  assert (X2 : RO T (core_of s) (core_of s2)).
  { rewrite (send_redirected_core _ _ _ H). eapply retract_response_states_RO; exact E. }
  destruct (retract_wakes _ _ _ _); inversion H2; subst s'; clear H2; [|exact X2].
  eapply RO_trans; [exact X2 | apply RO_tasks; reflexivity].
Qed.

Lemma on_new_worker_RO s rs g s' : on_new_worker s rs g = Ok s' -> RO T (core_of s) (core_of s').
Proof. intros H. unfold on_new_worker in H. inversion H; subst s'. apply RO_tasks; reflexivity. Qed.

Lemma register_deps_RO deps : forall c id kept count c' kept' count', register_deps c id deps kept count = (c', kept', count') -> RO T c c'.
Proof.
  induction deps as [|d r IH]; cbn [register_deps]; intros c id kept count c' kept' count' H; [inversion H; subst; apply RO_refl|].
  destruct (find_task (c_tasks c) d) as [dep|] eqn:Ef; [|eapply IH; exact H].
  eapply RO_trans; [|eapply IH; exact H].
  ro_set.
Qed.

Lemma add_new_tasks_RO ts :
  forall c ret c' ret',
  add_new_tasks c ts ret = Ok (c', ret') -> RO T c c'.
Proof.
  induction ts as [|t r IH]; cbn [add_new_tasks]; intros c ret c' ret' H; [inversion H; subst; apply RO_refl|].
  destruct (register_deps c (t_id t) (t_deps t) [] 0) as [[c1 kept] count] eqn:Er.
  pose proof (register_deps_RO _ _ _ _ _ _ _ _ Er) as R1.
  destruct (NoPanicC2.register_deps_frame _ _ _ _ _ _ _ _ Er) as (_ & _ & _ & Est).
  apply bind_ok in H. destruct H as ([c2 rt] & H2 & H).
  assert (E2 : c_tasks c2 = c_tasks c1).
  { destruct (N.eqb count 0); [|inversion H2; subst; reflexivity].
    apply bind_ok in H2. destruct H2 as ([qs rt'] & ?X & H2). inversion H2; subst. reflexivity. }
  destruct (find_task (c_tasks c2) (t_id t)) eqn:Ef2; [discriminate|].
  eapply RO_trans; [exact R1|]. eapply RO_trans; [apply (RO_tasks c1 c2 E2)|]. eapply RO_trans; [|eapply IH; exact H].
  eapply (RO_new _ _ (with_state (with_deps t kept) (Waiting count))); reflexivity.
Qed.

Lemma on_new_tasks_RO s ts s' : on_new_tasks s ts = Ok s' -> RO T (core_of s) (core_of s').
Proof.
  intros H. unfold on_new_tasks in H. destruct ts as [|t0 tr] eqn:Et; [inversion H; subst; apply RO_refl|]. rewrite <- Et in *. clear Et.
  apply bind_ok in H. destruct H as ([c' retracted] & Ha & H). apply bind_ok in H. destruct H as (s1 & Hr & H). inversion H; subst s'.
  eapply RO_trans; [eapply add_new_tasks_RO; exact Ha|].
  eapply RO_trans; [exact (process_retracted_RO (st_core s c') _ _ Hr)|]. apply RO_tasks; reflexivity.
Qed.

Lemma lost_prefilled_RO l : forall c c', lost_prefilled c l = Ok c' -> RO T c c'.
Proof.
  induction l as [|id r IH]; cbn [lost_prefilled]; intros c c' H; [inversion H; subst; apply RO_refl|].
  apply bind_ok in H. destruct H as (t & ?X & H). apply bind_ok in H. destruct H as (q & ?X & H). apply bind_ok in H. destruct H as (q' & ?X & H).
  eapply RO_trans; [|eapply IH; exact H].
  ro_set.
Qed.

Lemma lost_assigned_RO l : forall c running ret c' running' ret', lost_assigned c l running ret = Ok (c', running', ret') -> RO T c c'.
Proof.
  induction l as [|id r IH]; cbn [lost_assigned]; intros c running ret c' running' ret' H; [inversion H; subst; apply RO_refl|].
  apply bind_ok in H. destruct H as (t & Ht & H). apply get_task_find in Ht.
  apply bind_ok in H. destruct H as ([[c1 t1] running1] & Hr1 & H).
  apply bind_ok in H. destruct H as ([qs rt] & ?X & H).
  eapply RO_trans; [|eapply IH; exact H].
  assert (E1 : c_tasks c1 = c_tasks c /\ c_workers c1 = c_workers c /\ (t1 = t \/ t1 = with_state t (Waiting 0))).
  { destruct (t_state t); try (inversion Hr1; subst; auto; fail).
    destruct (find_redirect _ id); inversion Hr1; subst; auto. }
  destruct E1 as (Et & Ew & [-> | ->]).
  - eapply (RO_set c _ (with_inst t (t_inst t + 1)) t); [cbn [c_tasks upd_task with_tasks with_queues]; rewrite Et; reflexivity
      | exact (find_in _ _ _ Ht) | reflexivity | ro_cond].
  - eapply (RO_set c _ (with_inst (with_state t (Waiting 0)) (t_inst (with_state t (Waiting 0)) + 1)) t); [cbn [c_tasks upd_task with_tasks with_queues]; rewrite Et; reflexivity
      | exact (find_in _ _ _ Ht) | reflexivity | ro_cond].
Qed.

Lemma lost_fail_running_RO l : forall s reason s', lost_fail_running s reason l = Ok s' -> RO T (core_of s) (core_of s').
Proof.
  apply (lost_fail_running_rel (fun a b : st => RO T (core_of a) (core_of b)) (fun a => RO_refl _) (fun a b c => RO_trans _ _ _)).
  - intros s id t Ef. ro_set.
  - intros s id k s' _ H. exact (task_failed_RO _ _ _ _ _ H).
Qed.

Lemma lost_retracting_RO l : forall s w s', lost_retracting s w l = Ok s' -> RO T (core_of s) (core_of s').
Proof.
  induction l as [|id r IH]; cbn [lost_retracting]; intros s w s' H; [inversion H; subst; apply RO_refl|].
  apply bind_ok in H. destruct H as (t & Ht & H). apply get_task_find in Ht.
  destruct (t_state t) as [n|w1 rv1|w1|w1|w1 rv1|wsx|] eqn:Est; try (eapply IH; exact H).
  destruct (N.eqb w w1); [|eapply IH; exact H]. cbv zeta in H.
  destruct (find_redirect (c_redirects (core_of s)) id) as [[target rv]|].
  - apply bind_ok in H. destruct H as (s1 & Hs1 & H). eapply RO_trans; [|eapply IH; exact H].
    rewrite (send_worker_core _ _ _ _ Hs1).
    eapply (RO_set _ _ (with_state (with_inst t (t_inst t + 1)) (Assigned target rv)) t); [reflexivity | exact (find_in _ _ _ Ht) | reflexivity | ro_cond].
  - eapply RO_trans; [|eapply IH; exact H].
    eapply (RO_set _ _ (with_state (with_inst t (t_inst t + 1)) (Waiting 0)) t); [reflexivity | exact (find_in _ _ _ Ht) | reflexivity | ro_cond].
Qed.

Lemma lost_sets_RO c0 w wk ao po c2 running retracted : lost_sets c0 w wk ao po = Ok (c2, running, retracted) -> RO T c0 c2.
Proof.
  unfold lost_sets. intros Hr. destruct (w_assign wk) as [sa sp sf|mt root].
  - destruct (negb _); [discriminate|]. apply bind_ok in Hr. destruct Hr as (c1 & Hp & Hr).
    eapply RO_trans; [eapply lost_prefilled_RO; exact Hp | eapply lost_assigned_RO; exact Hr].
  - apply bind_ok in Hr. destruct Hr as (tk & Ht & Hr). apply get_task_find in Ht.
    destruct (t_state tk) as [n|w1 rv1|w1|w1|w1 rv1|ws|] eqn:Est; try discriminate. destruct ws as [|w0 rest] eqn:Ews; [discriminate|].
    destruct (N.eqb w w0) eqn:Ew0.
    + apply bind_ok in Hr. destruct Hr as (c1 & Hc1 & Hr). apply bind_ok in Hr. destruct Hr as ([qs ret] & ?X & Hr).
      inversion Hr; subst c2 running retracted.
      pose proof (reset_mn_all_tasks _ _ _ Hc1) as T1.
      eapply (RO_set c0 _ (with_inst (with_state tk (Waiting 0)) (t_inst tk + 1)) tk); [cbn [c_tasks upd_task with_tasks with_queues]; rewrite T1; reflexivity | exact (find_in _ _ _ Ht) | reflexivity | ro_cond].
    + inversion Hr; subst c2 running retracted.
      eapply (RO_set c0 _ (with_state tk (RunningMN (filter (fun x => negb (N.eqb x w)) (w0 :: rest)))) tk); [reflexivity | exact (find_in _ _ _ Ht) | reflexivity |].
      intros w' Hw'. left. rewrite Est. cbn [t_state with_state filter] in Hw'. rewrite (N.eqb_sym w0 w), Ew0 in Hw'. cbn [negb rroot] in Hw'. exact Hw'.
Qed.

Lemma on_remove_worker_RO s w reason a p t s' : on_remove_worker s w reason a p t = Ok s' -> RO T (core_of s) (core_of s').
Proof.
  apply (on_remove_worker_rel (fun a b => RO T (core_of a) (core_of b))).
  - intros x y z. apply RO_trans.
  - intros x w0 wk ao po c2 running retracted _ Hr. eapply RO_trans; [|exact (lost_sets_RO _ _ _ _ _ _ _ _ Hr)]. apply RO_tasks; reflexivity.
  - intros l x w0 x' H. exact (lost_retracting_RO _ _ _ _ H).
  - intros x r x' H. exact (process_retracted_RO _ _ _ H).
  - intros x w0. apply RO_refl.
  - intros x w0 running reason0 x' H. apply RO_tasks. rewrite (proj1 (process_worker_lost_active _ _ _ _ _ H)). reflexivity.
  - intros l x reason0 x' H. exact (lost_fail_running_RO _ _ _ _ H).
  - intros x. apply RO_tasks; reflexivity.
Qed.

Lemma handle_cancel_RO s jid s' : handle_cancel s jid = Ok s' -> RO T (core_of s) (core_of s').
Proof.
  intros H. unfold handle_cancel in H.
  destruct (find_job (hq_jobs s) jid) as [j|]; [|inversion H; subst; apply RO_refl].
  destruct (non_finished_task_ids j) as [|i0 ir] eqn:En; [inversion H; subst; apply RO_refl|]. rewrite <- En in *. clear En.
  apply bind_ok in H. destruct H as (s1 & H1 & H). apply bind_ok in H. destruct H as (al & ?X & H).
  apply bind_ok in H. destruct H as (s2 & H2 & H). inversion H; subst s'.
  destruct (set_cancel_state_active _ _ _ _ H2) as [C2 _]. unfold core_same in C2.
  change (RO T (core_of s) (core_of s2)). rewrite C2. eapply on_cancel_tasks_RO; exact H1.
Qed.

Lemma get_or_create_rq_RO s r : RO T (core_of s) (core_of (fst (get_or_create_rq s r))).
Proof. unfold get_or_create_rq. destruct (rq_index _ r 0); [apply RO_refl|]. apply RO_tasks; reflexivity. Qed.

End Pass.

Definition step_RT (s : sys) (o : op) : tid -> wid -> Prop :=
  match o with
  | OpDUp w => match find_proc (s_procs s) w with
               | Some p => match p_up p with UUpdates us :: _ => fun x w' => w' = w /\ runs x us | _ => fun _ _ => False end
               | None => fun _ _ => False
               end
  | _ => fun _ _ => False
  end.

Theorem step_RO s o s' outs : (forall sol, o <> OpSched sol) -> step s o = Ok (s', outs) -> RO (step_RT s o) (s_core s) (s_core s').
Proof.
  (* the walk is for this [o] only: the trigger set depends on it *)
  intros Hns H.
  refine (step_walk_core (fun a b => RO (step_RT (fst a) o) (core_of a) (core_of b)) (fun o' => o' = o /\ forall sol, o' <> OpSched sol)
            _ _ _ _ _ _ _ _ s o s' outs (conj eq_refl Hns) H).
  - intros a b E. apply RO_tasks. rewrite E. reflexivity.
  - intros s0 rs g b _ H0. exact (on_new_worker_RO _ _ _ _ H0).
  - intros s0 w reason a p t b _ H0. exact (on_remove_worker_RO _ _ _ _ _ _ _ H0).
  - intros s0 job ids entries rq prio cl tlim mf b _ H0.
    exact (handle_submit_array_pass _ (fun a b c => RO_trans _ _ _) (fun a b E _ => RO_tasks _ _ (f_equal c_tasks E)) get_or_create_rq_RO on_new_tasks_RO _ _ _ _ _ _ _ _ _ _ H0).
  - intros s0 job rqs ts mf b _ H0.
    exact (handle_submit_graph_pass _ (fun a b c => RO_trans _ _ _) (fun a b E _ => RO_tasks _ _ (f_equal c_tasks E)) get_or_create_rq_RO on_new_tasks_RO _ _ _ _ _ _ H0).
  - intros s0 j b _ H0. exact (handle_cancel_RO _ _ _ H0).
  - intros s0 w p m rest b [<- _] Hp Eu H0. destruct m as [us|ids]; [|exact (on_retract_response_RO _ _ _ _ H0)].
    refine (on_task_update_RO _ _ _ _ _ H0). intros x Hx. cbn [step_RT fst]. rewrite Hp, Eu. split; [reflexivity | exact Hx].
  - intros s0 sol b [_ Hn]. destruct (Hn sol eq_refl).
Qed.
