(** Bridge, part 3: the job-layer functions of [Reactor.v], the tako reactor and worker loss against
    the journal machine. *)
From HQ Require Import Base.Prelude Cluster.Types Cluster.Core Cluster.Reactor Cluster.Worker Cluster.Server Cluster.Sys Cluster.ProofsJob Cluster.ProofsMore Cluster.ProofsStep Cluster.ProofsOnce Cluster.DepOrderBase Cluster.SilentBase.
From HQ Require Import Cluster.ModelFacts.
From HQ Require Journal.Event Journal.Restore Journal.Gen Journal.Maps.
From HQ Require Import Cluster.Bridge Cluster.BridgeRel Cluster.BridgeEv.
From HQ Require Import Cluster.RejHyp Cluster.ReactSplit.
From Coq Require Import ZArith Lia.
Require Import ZifyBool ZifyN ZifyNat.
Local Open Scope N_scope.
Arguments N.add : simpl never.
Arguments N.sub : simpl never.
Arguments N.ltb : simpl never.
Arguments N.eqb : simpl never.

Definition SimF (specs : list Event.TaskSpec) (s s' : st) : Prop :=
  exists ext, snd s' = snd s ++ ext /\ SimE (hq_of s) (jevents_of_outs specs ext) (hq_of s').

Lemma jevents_app specs a b : jevents_of_outs specs (a ++ b) = jevents_of_outs specs a ++ jevents_of_outs specs b.
Proof. unfold jevents_of_outs. apply flat_map_app. Qed.

Lemma SimF_quiet specs s s' :
  snd s' = snd s -> (forall g, RelJ (hq_of s) g -> RelJ (hq_of s') g) -> SimF specs s s'.
Proof. intros Hs H. exists []. split; [rewrite app_nil_r; exact Hs | exact H]. Qed.

Lemma SimF_silent specs s s' ext :
  hq_of s' = hq_of s -> snd s' = snd s ++ ext -> jevents_of_outs specs ext = [] -> SimF specs s s'.
Proof. intros Hq Hs He. exists ext. split; [exact Hs|]. rewrite He, Hq. apply SimE_nil. Qed.

Lemma jevents_launches specs ls : jevents_of_outs specs (List.map OLaunch ls) = [].
Proof. induction ls as [|l r IH]; [reflexivity | exact IH]. Qed.

Lemma SimF_same specs s s' : hq_of s' = hq_of s -> snd s' = snd s -> SimF specs s s'.
Proof. intros Hq Hs. apply SimF_quiet; [exact Hs | rewrite Hq; auto]. Qed.

Lemma SimF_refl specs s : SimF specs s s.
Proof. apply SimF_same; reflexivity. Qed.

Lemma SimF_trans specs s1 s2 s3 : SimF specs s1 s2 -> SimF specs s2 s3 -> SimF specs s1 s3.
Proof.
  intros (a & Ha & Sa) (b & Hb & Sb). exists (a ++ b). split; [rewrite Hb, Ha, app_assoc; reflexivity|].
  rewrite jevents_app. eapply SimE_app; eassumption.
Qed.

Lemma SimF_step specs s s' o : snd s' = snd s ++ [o] -> SimE (hq_of s) (jout specs o) (hq_of s') -> SimF specs s s'.
Proof. intros Hs H. exists [o]. split; [exact Hs|]. unfold jevents_of_outs. cbn [flat_map]. rewrite app_nil_r. exact H. Qed.

Lemma SimF_emit_quiet specs s o : jout specs o = [] -> SimF specs s (emit s o).
Proof. intros H. apply (SimF_step specs s (emit s o) o); [reflexivity | rewrite H; apply SimE_nil]. Qed.

Lemma UPD_set s j' jid : j_id j' = jid -> UPD (hq_of s) (hq_of (hq_set_job s j')) jid j'.
Proof. intros <-. split; [|reflexivity]. intros id. apply find_job_set. Qed.

Lemma find_job_hq_set s j : find_job (h_jobs (hq_of (hq_set_job s j))) (j_id j) = Some j.
Proof. rewrite (proj1 (UPD_set s j _ eq_refl)), N.eqb_refl. reflexivity. Qed.

Lemma csub_ok a b site c : csub a b site = Ok c -> c + b = a.
Proof. unfold csub. destruct (N.ltb_spec a b) as [|Hle]; [discriminate|]. intros E. injection E as <-. lia. Qed.

Lemma JOK_retask jb t v0 v1 nrun nfin nfail ncanc nabort :
  JOK jb -> jt_find (j_tasks jb) t = Some v0 -> v0 = JW \/ v0 = JR ->
  nrun + (if jst_eqb v0 JR then 1 else 0) = j_nrun jb + (if jst_eqb v1 JR then 1 else 0) ->
  nfin + (if jst_eqb v0 JF then 1 else 0) = j_nfin jb + (if jst_eqb v1 JF then 1 else 0) ->
  nfail + (if jst_eqb v0 JX then 1 else 0) = j_nfail jb + (if jst_eqb v1 JX then 1 else 0) ->
  ncanc + (if jst_eqb v0 JC then 1 else 0) = j_ncanc jb + (if jst_eqb v1 JC then 1 else 0) ->
  nabort + (if jst_eqb v0 JA then 1 else 0) = j_nabort jb + (if jst_eqb v1 JA then 1 else 0) ->
  JOK (job_upd jb (jt_set (j_tasks jb) t v1) nrun nfin nfail ncanc nabort (j_completed jb)).
Proof.
  intros Hok Hf Hv Er Ef Ex Ec Ea. pose proof (pending_not_completed _ _ _ Hok Hf Hv) as Hc.
  destruct Hok as [Ss R F X C A _]. pose proof (fun v => cnt_set_some _ _ _ v1 v Ss Hf) as HC.
  constructor; cbn.
  - apply jt_set_sorted. exact Ss.
  - specialize (HC JR). lia.
  - specialize (HC JF). lia.
  - specialize (HC JX). lia.
  - specialize (HC JC). lia.
  - specialize (HC JA). lia.
  - congruence.
Qed.

Lemma check_termination_sim specs s jid j s' :
  find_job (h_jobs (hq_of s)) jid = Some j -> JOK j -> j_completed j = false ->
  check_termination s jid = Ok s' -> SimF specs s s'.
Proof.
  intros Hf Hok Hcm Hc. unfold check_termination in Hc. inv_bind Hc.
  destruct (hq_get_job_find _ _ _ _ Hb) as (Hf' & Hid). rewrite Hf in Hf'. injection Hf' as <-.
  rewrite (has_no_active_ok _ Hok) in Hb0. cbn [bind] in Hb0.
  destruct (N.eqb (cnt (j_tasks j) JR) 0 && N.eqb (cnt (j_tasks j) JW) 0) eqn:E; [|injection Hb0 as <-; apply SimF_refl].
  destruct (j_open j) eqn:Eo; injection Hb0 as <-; [apply SimF_refl|].
  apply andb_prop in E. destruct E as [Er Ew]. apply N.eqb_eq in Er, Ew.
  eapply SimF_step; [reflexivity|]. subst jid.
  eapply ev_completed; [exact Hf | exact Hcm | exact Eo | exact Er | exact Ew | apply UPD_set | ]; reflexivity.
Qed.

Lemma set_job_check_sim specs s j' o jid s' :
  check_termination (emit (hq_set_job s j') o) jid = Ok s' -> j_id j' = jid ->
  SimE (hq_of s) (jout specs o) (hq_of (hq_set_job s j')) -> JOK j' -> j_completed j' = false ->
  SimF specs s s'.
Proof.
  intros Hc <- HS Hok Hcm. apply (SimF_trans specs s (emit (hq_set_job s j') o)); [eapply SimF_step; [reflexivity | exact HS]|].
  eapply check_termination_sim; [apply find_job_hq_set | exact Hok | exact Hcm | exact Hc].
Qed.

Lemma process_task_started_sim specs s t inst ws rv s' :
  process_task_started s t inst ws rv = Ok s' -> SimF specs s s'.
Proof.
  intros Hc. unfold process_task_started in Hc. inv_bind Hc.
  destruct (hq_get_job_find _ _ _ _ Hb) as (Hf & Hid).
  destruct (jt_find (j_tasks a) (snd t)) as [v|] eqn:Ef; [|discriminate].
  injection Hb0 as <-. eapply SimF_step; [reflexivity|].
  eapply ev_started; [exact Hf | exact Ef | apply UPD_set; destruct v; exact Hid |].
  (* only a waiting task changes *)
  destruct v; [apply retask_upd | apply retask_same; exact Ef ..].
Qed.

Lemma process_task_finished_sim specs s t s' :
  HOK (hq_of s) -> process_task_finished s t = Ok s' -> SimF specs s s'.
Proof.
  intros H Hc. unfold process_task_finished in Hc. inv_bind Hc.
  destruct (hq_get_job_find _ _ _ _ Hb) as (Hf & Hid). pose proof (hq_get_job_ok _ _ _ _ H Hb) as Hok.
  destruct (jt_find (j_tasks a) (snd t)) as [[]|] eqn:Ef; try discriminate.
  inv_bind Hb0. apply csub_ok in Hb1.
  eapply set_job_check_sim; [exact Hb2 | exact Hid | | |].
  - eapply ev_finished; [exact Hf | apply UPD_set; exact Hid | apply retask_upd].
  - eapply JOK_retask; [exact Hok | exact Ef | right; reflexivity | ..]; cbn [jst_eqb]; lia.
  - exact (pending_not_completed _ _ _ Hok Ef (or_intror eq_refl)).
Qed.

Lemma set_waiting_state_sim specs s t s' : set_waiting_state s t = Ok s' -> SimF specs s s'.
Proof.
  intros Hc. unfold set_waiting_state in Hc. inv_bind Hc. destruct (hq_get_job_find _ _ _ _ Hb) as (Hf & Hid).
  destruct (jt_find (j_tasks a) (snd t)) as [v|] eqn:Ef; [|discriminate].
  destruct v; try (injection Hb0 as <-; apply SimF_refl).
  inv_bind Hb0. injection Hb2 as <-. apply SimF_quiet; [reflexivity|]. intros g HR.
  eapply RelJ_quiet; [exact HR | exact Hf | apply UPD_set; exact Hid | exact Ef | apply retask_upd].
Qed.

Lemma set_waiting_all_sim specs ts : forall s s', set_waiting_all s ts = Ok s' -> SimF specs s s'.
Proof.
  induction ts as [|t r IH]; cbn [set_waiting_all]; intros s s' H; [injection H as <-; apply SimF_refl|].
  inv_bind H. eapply SimF_trans; [eapply set_waiting_state_sim; exact Hb | eapply IH; exact Hb0].
Qed.

Lemma process_worker_lost_sim specs s w running reason s' : process_worker_lost s w running reason = Ok s' -> SimF specs s s'.
Proof.
  intros H. unfold process_worker_lost in H. inv_bind H. injection Hb0 as <-.
  eapply SimF_trans; [eapply set_waiting_all_sim; exact Hb|].
  eapply SimF_step; [reflexivity | apply ev_wlost].
Qed.

Lemma mark_common target site s jid t r a a0 ncanc nabort :
  is_abort_or_cancel target -> HOK (hq_of s) ->
  hq_get_job s jid 207 = Ok a -> mark_tasks a (t :: r) target site = Ok a0 ->
  ncanc = j_ncanc a0 + (if jst_eqb target JC then N.of_nat (length (t :: r)) else 0) ->
  nabort = j_nabort a0 + (if jst_eqb target JA then N.of_nat (length (t :: r)) else 0) ->
  let jb' := job_upd a0 (j_tasks a0) (j_nrun a0) (j_nfin a0) (j_nfail a0) ncanc nabort (j_completed a0) in
  SimE (hq_of s) [match target with JC => Event.ETasksCanceled (t :: r) | _ => Event.ETasksAborted (t :: r) end] (hq_of (hq_set_job s jb'))
  /\ JOK jb' /\ j_completed jb' = false /\ j_id jb' = jid.
Proof.
  intros Ht H Hb Hm -> -> jb'.
  destruct (hq_get_job_find _ _ _ _ Hb) as (Hf & Hid). pose proof (hq_get_job_ok _ _ _ _ H Hb) as Hok.
  destruct (mark_tasks_ok target site _ Ht _ _ 0 (JOK_JOKx _ target Hok) Hm) as ([Ss R F X C A] & _ & O2 & O3 & _).
  destruct (mark_tasks_cons _ _ _ _ _ _ Hm) as (_ & v & _ & Ef & Hv & _).
  pose proof (pending_not_completed _ _ _ Hok Ef Hv) as Hc0.
  assert (Hc' : j_completed jb' = false) by (cbn; congruence).
  assert (Hid' : j_id jb' = jid) by (cbn; congruence).
  split; [|split; [|split; [exact Hc' | exact Hid']]].
  - rewrite <- Hid in Hf. eapply (ev_term target site); [exact Ht | exact Hf | exact Hc0 | exact Hm | apply UPD_set; exact O3 | exact Hc' | | ]; reflexivity.
  - (* the counters of [mark_tasks_ok] with the batch added; the completion clause is void *)
    constructor; cbn; auto. congruence.
Qed.

Lemma abort_tasks_sim specs s jid ids s' :
  HOK (hq_of s) -> abort_tasks s jid ids = Ok s' -> SimF specs s s'.
Proof.
  intros H Hc. unfold abort_tasks in Hc. destruct ids as [|i0 ir]; [injection Hc as <-; apply SimF_refl|].
  inv_bind Hc. inv_bind Hb0.
  destruct (mark_common JA 206 s jid i0 ir a a0 _ _ (or_intror eq_refl) H Hb Hb1 (eq_sym (N.add_0_r _)) eq_refl) as (HS & Hok' & Hc' & Hid').
  eapply set_job_check_sim; [exact Hb2 | exact Hid' | exact HS | exact Hok' | exact Hc'].
Qed.

Lemma set_cancel_state_sim specs s jid ids s' :
  HOK (hq_of s) -> set_cancel_state s jid ids = Ok s' -> SimF specs s s'.
Proof.
  intros H Hc. unfold set_cancel_state in Hc. destruct ids as [|i0 ir]; [injection Hc as <-; apply SimF_refl|].
  inv_bind Hc. inv_bind Hb0.
  destruct (mark_common JC 205 s jid i0 ir a a0 _ _ (or_introl eq_refl) H Hb Hb1 eq_refl (eq_sym (N.add_0_r _))) as (HS & Hok' & Hc' & Hid').
  destruct (mark_tasks_cons _ _ _ _ _ _ Hb1) as (_ & v & _ & Ef & Hv & _).
  destruct (hq_get_job_find _ _ _ _ Hb) as (Hf & Hid). pose proof (hq_get_job_ok _ _ _ _ H Hb) as Hj.
  eapply SimF_trans; [|eapply check_termination_sim; [|exact Hok' | exact Hc' | exact Hb2]].
  - (* the job-cancel record, then the batch; the state change happens with the first emit *)
    exists [OEv (EvJobCancel jid); OEv (EvCanceled (i0 :: ir))]. split; [unfold emit, hq_set_job; cbn [snd fst]; rewrite <- app_assoc; reflexivity|].
    apply (SimE_app _ [Event.EJobCancel jid] (hq_of s) [Event.ETasksCanceled (i0 :: ir)]); [|exact HS].
    rewrite <- Hid in Hf |- *. eapply ev_jobcancel; [exact Hj | exact Hf | exact Ef | exact Hv].
  - rewrite <- Hid'. apply find_job_hq_set.
Qed.

Lemma process_task_failed_sim specs s t aborted k s' ids :
  HOK (hq_of s) -> process_task_failed s t aborted k = Ok (s', ids) -> SimF specs s s'.
Proof.
  intros H Hc. unfold process_task_failed in Hc.
  apply bind_ok in Hc. destruct Hc as (s1 & Hab & Hc).
  pose proof (abort_tasks_ok _ _ _ _ H Hab) as H1. pose proof (abort_tasks_sim specs _ _ _ _ H Hab) as S1.
  apply bind_ok in Hc. destruct Hc as (j & Hg & Hc).
  pose proof (hq_get_job_ok _ _ _ _ H1 Hg) as Hj. destruct (hq_get_job_find _ _ _ _ Hg) as (Hf & Hid).
  apply bind_ok in Hc. destruct Hc as (j1 & Hj1 & Hc).
  destruct (jt_find (j_tasks j) (snd t)) as [v|] eqn:Ef; [|discriminate].
  (* waiting or running, the failed task differs only in the running counter *)
  assert (exists nr, nr + (if jst_eqb v JR then 1 else 0) = j_nrun j /\ (v = JW \/ v = JR)
          /\ j1 = job_upd j (jt_set (j_tasks j) (snd t) JX) nr (j_nfin j) (j_nfail j + 1) (j_ncanc j) (j_nabort j) (j_completed j))
    as (nr & Enr & Hv & ->).
  { destruct v; try discriminate.
    - injection Hj1 as <-. exists (j_nrun j). split; [apply N.add_0_r | auto].
    - apply bind_ok in Hj1. destruct Hj1 as (nr & Hnr & Hj1). apply csub_ok in Hnr. injection Hj1 as <-. eauto. }
  apply bind_ok in Hc. destruct Hc as (s2 & Hct & Hc).
  match type of Hct with context [hq_set_job s1 ?x] => assert (Hok1 : JOK x) end.
  { eapply JOK_retask; [exact Hj | exact Ef | exact Hv | ..]; destruct Hv; subst v; cbn [jst_eqb] in *; lia. }
  assert (S2 : SimF specs s1 s2).
  { eapply set_job_check_sim; [exact Hct | exact Hid | | exact Hok1 | exact (pending_not_completed _ _ _ Hj Ef Hv)].
    eapply ev_failed; [exact Hj | exact Hf | exact Ef | exact Hv | apply UPD_set; exact Hid | apply retask_upd]. }
  assert (H2 : HOK (hq_of s2)) by (eapply check_termination_ok; [|exact Hct]; apply hq_set_job_ok; assumption).
  pose proof (SimF_trans _ _ _ _ S1 S2) as S12.
  apply bind_ok in Hc. destruct Hc as (j2 & _ & Hc).
  destruct (j_maxfails j2) as [mf|]; [|injection Hc as <- _; exact S12].
  destruct (N.ltb mf (j_nfail j2)); [|injection Hc as <- _; exact S12].
  apply bind_ok in Hc. destruct Hc as (s3 & Hab2 & Hc). injection Hc as <- _.
  eapply SimF_trans; [exact S12 | eapply abort_tasks_sim; eassumption].
Qed.

Lemma task_failed_sim specs s w id k s' : HOK (hq_of s) -> task_failed s w id k = Ok s' -> SimF specs s s'.
Proof.
  intros H Hc. apply task_failed_split in Hc. destruct (find_task _ id) as [t|]; [|subst; apply SimF_refl].
  destruct Hc as (c1 & csm & c2 & c3 & stt & s1 & ids & _ & _ & _ & _ & H4 & Hc).
  eapply SimF_trans; [apply (SimF_same specs s (st_core s c3)); reflexivity|].
  eapply SimF_trans; [eapply process_task_failed_sim; [|exact H4]; exact H|].
  destruct ids; [subst; apply SimF_refl|].
  apply SimF_same; [eapply on_cancel_tasks_hq; exact Hc | eapply on_cancel_tasks_snd; exact Hc].
Qed.

Lemma task_finished_sim specs s w id s' b : HOK (hq_of s) -> task_finished s w id = Ok (s', b) -> SimF specs s s'.
Proof.
  intros H Hc. apply task_finished_split in Hc. destruct (find_task _ id) as [t|]; [|subst; apply SimF_refl].
  destruct Hc as (c1 & s1 & c3 & rt & s2 & c4 & _ & Hf & _ & Hr & _ & ->).
  eapply SimF_trans; [|eapply SimF_trans; [eapply process_task_finished_sim; [|exact Hf]; exact H|]]; [apply SimF_same; reflexivity|].
  apply SimF_same; [exact (process_retracted_hq _ _ _ Hr) | exact (process_retracted_snd _ _ _ Hr)].
Qed.

Lemma task_running_sim specs s w id rv s' b : task_running s w id rv = Ok (s', b) -> SimF specs s s'.
Proof.
  intros Hc. apply task_running_split in Hc. destruct (find_task _ id) as [t|]; [|subst; apply SimF_refl].
  destruct Hc as (s1 & ws & Q1 & S1 & H2 & _).
  eapply SimF_trans; [apply SimF_same; [exact Q1 | exact S1] | eapply process_task_started_sim; exact H2].
Qed.

(** [SimF] together with the exactness of the job counters it needs: a relation between the ends. *)
Definition SimH specs (a b : st) : Prop := HOK (hq_of a) -> HOK (hq_of b) /\ SimF specs a b.

Lemma SimH_refl specs s : SimH specs s s.
Proof. intros H. split; [exact H | apply SimF_refl]. Qed.
Lemma SimH_trans specs a b c : SimH specs a b -> SimH specs b c -> SimH specs a c.
Proof. intros A B H. destruct (A H) as [H1 S1]. destruct (B H1) as [H2 S2]. split; [exact H2 | eapply SimF_trans; eassumption]. Qed.
Lemma SimH_same specs s s' : hq_of s' = hq_of s -> snd s' = snd s -> SimH specs s s'.
Proof. intros Hq Hs H. split; [rewrite Hq; exact H | apply SimF_same; assumption]. Qed.

Lemma apply_one_sim specs s w u s' n : apply_one s w u = Ok (s', n) -> SimH specs s s'.
Proof.
  apply (apply_one_walk (SimH specs)).
  - intros x w0 id x' b Hu H. split; [eapply task_finished_ok; eassumption | eapply task_finished_sim; eassumption].
  - intros x w0 id k x' Hu H. split; [eapply task_failed_ok; eassumption | eapply task_failed_sim; eassumption].
  - intros x w0 id rv x' b Hu H. split; [eapply task_running_ok; eassumption | eapply task_running_sim; eassumption].
  - intros x w0 id rv x' b Hu. apply SimH_same; [eapply task_reject_same; exact Hu | eapply task_reject_snd; exact Hu].
  - intros x w0 rq rv x' Hu. apply SimH_same; [eapply request_enabled_same; exact Hu | eapply request_enabled_snd; exact Hu].
Qed.

Lemma on_task_update_sim specs s w us s' : HOK (hq_of s) -> on_task_update s w us = Ok s' -> SimF specs s s'.
Proof.
  intros H Hc. refine (proj2 (on_task_update_rel (SimH specs) (SimH_refl specs) (SimH_trans specs) (apply_one_sim specs) s w us s' _ Hc H)).
  intros x. apply SimH_same; reflexivity.
Qed.

Lemma lost_fail_running_simH specs l : forall s reason s', lost_fail_running s reason l = Ok s' -> SimH specs s s'.
Proof.
  apply (lost_fail_running_rel (SimH specs) (SimH_refl specs) (SimH_trans specs)).
  - intros x id t _. apply SimH_same; reflexivity.
  - intros x id k x' _ Hf H0. split; [eapply task_failed_ok; eassumption | eapply task_failed_sim; eassumption].
Qed.

Lemma lost_fail_running_sim specs l : forall s reason s', HOK (hq_of s) -> lost_fail_running s reason l = Ok s' -> SimF specs s s'.
Proof. intros s reason s' H Hc. exact (proj2 (lost_fail_running_simH specs l s reason s' Hc H)). Qed.

Lemma on_remove_worker_sim specs s w reason a p t s' :
  HOK (hq_of s) -> on_remove_worker s w reason a p t = Ok s' -> SimF specs s s'.
Proof.
  intros H Hc. refine (proj2 (on_remove_worker_rel (SimH specs) (SimH_trans specs) _ _ _ _ _ _ _ s w reason a p t s' Hc H)).
  - intros x w0 wk ao po c2 running retracted _ _. apply SimH_same; reflexivity.
  - intros l x w0 x' X. apply SimH_same; [exact (lost_retracting_same _ _ _ _ X) | exact (lost_retracting_snd _ _ _ _ X)].
  - intros x r x' X. apply SimH_same; [exact (process_retracted_hq _ _ _ X) | exact (process_retracted_snd _ _ _ X)].
  - intros x w0. apply SimH_same; reflexivity.
  - intros x w0 running reason0 x' X H0. split; [exact (process_worker_lost_ok _ _ _ _ _ H0 X) | exact (process_worker_lost_sim specs _ _ _ _ _ X)].
  - intros l x reason0 x' X. exact (lost_fail_running_simH specs l x reason0 x' X).
  - intros x. apply SimH_same; reflexivity.
Qed.
