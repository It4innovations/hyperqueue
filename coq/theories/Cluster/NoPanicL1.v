(** Worker loss never panics: the release of everything the lost worker held
    ([lost_prefilled], [lost_assigned], the multi-node branch of [on_remove_worker]) is total on a
    state satisfying the invariants, and what holds afterwards. *)
From HQ Require Import Base.Prelude Cluster.Types Cluster.Core Cluster.Reactor Cluster.Server Cluster.BijBase Cluster.BijCore Cluster.BijFinal Cluster.InvWBase Cluster.InvWView Cluster.InvWCore Cluster.InvWReact Cluster.InvWServer Cluster.InvWFinal Cluster.InvQBase Cluster.InvQTake Cluster.InvQInv Cluster.InvQOps Cluster.InvQReact Cluster.InvQServer Cluster.InvQStep Cluster.InvDBase Cluster.InvDSpec Cluster.InvDSched Cluster.NoPanicC1 Cluster.NoPanicC2.
From HQ Require Import Cluster.StepShape.
From HQ Require Import Cluster.ModelFacts.
From Coq Require Import ZArith Lia Sorting.Sorted.
Local Open Scope N_scope.

Arguments N.add : simpl never.
Arguments N.sub : simpl never.

Lemma WI_inP_task c w wk a p f id :
  WI c -> find_worker (c_workers c) w = Some wk -> w_assign wk = Sn a p f -> tid_mem id p = true ->
  exists t, find_task (c_tasks c) id = Some t /\ t_state t = Prefilled w.
Proof.
  intros (_ & _ & H & _) Hw Ea Hm.
  pose proof (wi_P _ _ _ H w id) as X. unfold inP, wantP, hv, x0, TV in X. rewrite Hw, Ea, Hm in X.
  destruct (find_task (c_tasks c) id) as [t|]; cbn [option_map plo] in X; [|discriminate].
  exists t. split; [reflexivity|]. destruct (t_state t); cbn [pl] in X; try discriminate.
  symmetry in X. apply N.eqb_eq in X. subst. reflexivity.
Qed.

Lemma WI_inA_task c w wk a p f id :
  WI c -> find_worker (c_workers c) w = Some wk -> w_assign wk = Sn a p f -> tid_mem id a = true ->
  exists t, find_task (c_tasks c) id = Some t /\
    ((exists rv, t_state t = Assigned w rv) \/ (exists rv, t_state t = Running w rv) \/
     (exists w1 v, t_state t = Retracting w1 /\ find_redirect (c_redirects c) id = Some (w, v))).
Proof.
  intros (_ & _ & H & _) Hw Ea Hm.
  pose proof (wi_A _ _ _ H w id) as X. unfold inA, wantA, hv, x0, TV in X. rewrite Hw, Ea, Hm in X.
  destruct (find_task (c_tasks c) id) as [t|]; cbn [option_map plo] in X; [|discriminate].
  exists t. split; [reflexivity|]. destruct (t_state t) as [n|w1 rv|w1|w1|w1 rv|ws|]; cbn [pl] in X; try discriminate.
  - symmetry in X. apply N.eqb_eq in X. subst. left. eauto.
  - right. right. destruct (find_redirect (c_redirects c) id) as [[tg v]|]; [|discriminate].
    symmetry in X. apply N.eqb_eq in X. subst. eauto.
  - symmetry in X. apply N.eqb_eq in X. subst. right. left. eauto.
Qed.

Lemma WI_inM_task c w wk mt root :
  WI c -> find_worker (c_workers c) w = Some wk -> w_assign wk = Mn mt root ->
  exists t ws, find_task (c_tasks c) mt = Some t /\ t_state t = RunningMN ws /\ In w ws.
Proof.
  intros (_ & _ & H & _) Hw Ea.
  pose proof (wi_M _ _ _ H w mt) as X. unfold inM, wantM, hv, x0, TV in X. rewrite Hw, Ea, tid_eqb_refl in X.
  destruct (find_task (c_tasks c) mt) as [t|]; cbn [option_map plo] in X; [|discriminate].
  destruct (t_state t) as [n|w1 rv|w1|w1|w1 rv|ws|] eqn:Est; cbn [pl] in X; try discriminate.
  exists t, ws. split; [reflexivity|]. split; [exact Est|]. apply n_mem_In. symmetry. exact X.
Qed.

Lemma lost_prefilled_tot l : forall c wkv a p f,
  wsorted (c_workers c) -> WI (vcore c wkv) -> w_assign wkv = Sn a p f -> NoDup l -> (forall i, In i l -> tid_mem i p = true) ->
  QI none [] c -> exists c', lost_prefilled c l = Ok c'.
Proof.
  induction l as [|id r IH]; intros c wkv a p f Sw HW Ea Hnd Hm V; [eexists; reflexivity|].
  inversion Hnd as [|? ? Hni Hnd']; subst.
  destruct (WI_inP_task (vcore c wkv) (w_id wkv) wkv a p f id HW (vcore_find c wkv) Ea (Hm id (or_introl eq_refl))) as (t & Ht & Hst).
  cbn [vcore c_tasks upd_worker with_workers] in Ht.
  destruct (QV_queue _ _ _ _ _ _ _ _ V Ht) as (q & Hq & Hwf & Hp).
  unfold exp_place, none in Hp. rewrite Hst in Hp. cbn [nat_place] in Hp.
  pose proof (placed_prefill_at _ _ _ Hp) as Hpf. unfold PfAt, PAt in Hpf. destruct Hpf as (ts & Eq & Hin).
  assert (Hmv : exists q', q_move_prefilled_to_ready q id = Ok q').
  { unfold q_move_prefilled_to_ready. rewrite Eq. apply tid_mem_In in Hin. rewrite Hin. eexists; reflexivity. }
  destruct Hmv as (q' & Hq').
  set (c1 := with_queues (upd_task c (with_state (with_inst t (t_inst t + 1)) (Waiting 0))) (set_queue (c_queues c) (N.to_nat (t_rq t)) q')).
  assert (Hstep : forall r', lost_prefilled c (id :: r') = lost_prefilled c1 r').
  { intros r'. cbn [lost_prefilled]. rewrite (get_task_ok _ _ _ Ht). cbn [bind]. rewrite (proj2 (nth_queue_ok _ _ _) Hq). cbn [bind]. rewrite Hq'. reflexivity. }
  assert (H1 : lost_prefilled c [id] = Ok c1) by (rewrite Hstep; reflexivity).
  destruct (lost_prefilled_V [id] c wkv a p f c1 Sw HW Ea) as (Ew & wkv' & p' & Hi' & Ea' & Hm' & W');
    [constructor; [intros [] | constructor] | intros i [<-|[]]; apply Hm; left; reflexivity | exact H1 |].
  destruct (lost_prefilled_QI _ _ _ V H1) as [V1 _].
  rewrite Hstep. eapply (IH c1 wkv' a p' f); [rewrite Ew; exact Sw | exact W' | exact Ea' | exact Hnd' | | exact V1].
  intros i Hi. rewrite Hm', (Hm i (or_intror Hi)). cbn [tid_mem andb].
  assert (E : tid_eqb i id = false) by (apply tid_eqb_neq; intros ->; contradiction). rewrite E. reflexivity.
Qed.

Lemma lost_assigned_tot l : forall c wkv a p f running ret,
  wsorted (c_workers c) -> WI (vcore c wkv) -> w_assign wkv = Sn a p f -> NoDup l -> (forall i, In i l -> tid_mem i a = true) ->
  QI (exL Ready ret none) [] c -> NP l (c_tasks c) -> exists r, lost_assigned c l running ret = Ok r.
Proof.
  induction l as [|id r IH]; intros c wkv a p f running ret Sw HW Ea Hnd Hm V Hnp; [eexists; reflexivity|].
  inversion Hnd as [|? ? Hni Hnd']; subst.
  destruct (WI_inA_task (vcore c wkv) (w_id wkv) wkv a p f id HW (vcore_find c wkv) Ea (Hm id (or_introl eq_refl))) as (t & Ht & Hst).
  cbn [vcore c_tasks c_redirects upd_worker with_workers] in Ht, Hst.
  destruct (find_task_some _ _ _ Ht) as [_ Hid].
  assert (Hr1 : exists c1 t1 running1,
            (match t_state t with
             | Running _ _ => Ok (c, with_state t (Waiting 0), running ++ [id])
             | Retracting _ =>
                 match find_redirect (c_redirects c) id with
                 | Some _ => Ok (with_redirects c (del_redirect (c_redirects c) id), t, running)
                 | None => Panic 185
                 end
             | _ => Ok (c, with_state t (Waiting 0), running)
             end : res (core * task * list tid)) = Ok (c1, t1, running1) /\
            c_tasks c1 = c_tasks c /\ c_queues c1 = c_queues c /\ t_rq t1 = t_rq t /\ t_id t1 = id).
  { destruct Hst as [(rv & ->)|[(rv & ->)|(w1 & v & -> & ->)]]; eexists; eexists; eexists; (split; [reflexivity|]); repeat split; exact Hid. }
  destruct Hr1 as (c1 & t1 & running1 & Hr1 & Et1 & Eq1 & Erq1 & Eid1).
  set (t2 := with_inst t1 (t_inst t1 + 1)).
  destruct (add_ready_task_tot (c_queues (upd_task c1 t2)) t2) as (qs & rt & qs1 & Ha & _).
  { cbn [upd_task with_tasks c_queues t2 with_inst t_rq]. rewrite Eq1, Erq1. exact (qv_rq _ _ _ _ _ _ V _ _ Ht). }
  set (c' := with_queues (upd_task c1 t2) qs).
  assert (Hstep : forall r', lost_assigned c (id :: r') running ret = lost_assigned c' r' running1 (ret ++ rt)).
  { intros r'. cbn [lost_assigned]. rewrite (get_task_ok _ _ _ Ht). cbn [bind]. rewrite Hr1. cbn [bind]. fold t2. rewrite Ha. reflexivity. }
  assert (H1 : lost_assigned c [id] running ret = Ok (c', running1, ret ++ rt)) by (rewrite Hstep; reflexivity).
  destruct (lost_assigned_V [id] c wkv a p f running ret c' running1 (ret ++ rt) Sw HW Ea) as (Ew & wkv' & a' & f' & Hi' & Ea' & Hm' & W');
    [constructor; [intros [] | constructor] | intros i [<-|[]]; apply Hm; left; reflexivity | exact H1 |].
  assert (V1 : QI (exL Ready (ret ++ rt) none) [] c').
  { eapply (lost_assigned_QI [id] c running ret); [exact V | | exact H1]. intros x tx [<-|[]] Hx. eapply Hnp; [left; reflexivity | exact Hx]. }
  rewrite Hstep. eapply (IH c' wkv' a' p f'); [rewrite Ew; exact Sw | exact W' | exact Ea' | exact Hnd' | | exact V1 |].
  - intros i Hi. rewrite Hm', (Hm i (or_intror Hi)). cbn [tid_mem andb].
    assert (E : tid_eqb i id = false) by (apply tid_eqb_neq; intros ->; contradiction). rewrite E. reflexivity.
  - intros x tx Hx Hfx. cbn [c' c_tasks with_queues upd_task with_tasks] in Hfx. rewrite find_set_task in Hfx.
    cbn [t2 t_id with_inst] in Hfx. rewrite Eid1 in Hfx.
    assert (E : tid_eqb x id = false) by (apply tid_eqb_neq; intros ->; contradiction). rewrite E, Et1 in Hfx.
    eapply Hnp; [right; exact Hx | exact Hfx].
Qed.

Lemma lost_assigned_cons c id r running ret c' running' ret' :
  lost_assigned c (id :: r) running ret = Ok (c', running', ret') ->
  exists t c1 t1 running1 qs rt,
    find_task (c_tasks c) id = Some t /\
    c_tasks c1 = c_tasks c /\ c_queues c1 = c_queues c /\ t_id t1 = id /\
    (running1 = running \/ (running1 = running ++ [id] /\ t_state t1 = Waiting 0)) /\
    add_ready_task (c_queues c) (with_inst t1 (t_inst t1 + 1)) = Ok (qs, rt) /\
    lost_assigned c [id] running ret = Ok (with_queues (upd_task c1 (with_inst t1 (t_inst t1 + 1))) qs, running1, ret ++ rt) /\
    lost_assigned (with_queues (upd_task c1 (with_inst t1 (t_inst t1 + 1))) qs) r running1 (ret ++ rt) = Ok (c', running', ret').
Proof.
  intros H. cbn [lost_assigned] in H.
  apply bind_ok in H as (t & Ht & H). apply bind_ok in H as ([[c1 t1] running1] & Hr1 & H).
  apply bind_ok in H as ([qs rt] & Ha & H).
  pose proof (get_task_find _ _ _ Ht) as Hf. destruct (find_task_some _ _ _ Hf) as [_ Hid].
  assert (E1 : c_tasks c1 = c_tasks c /\ c_queues c1 = c_queues c /\ t_id t1 = id /\
               (running1 = running \/ (running1 = running ++ [id] /\ t_state t1 = Waiting 0))).
  { apply tid_eqb_eq in Hid.
    destruct (t_state t); try (inversion Hr1; subst c1 t1 running1; repeat split; try (apply tid_eqb_eq; exact Hid); auto).
    destruct (find_redirect (c_redirects c) id); [|discriminate]. inversion Hr1; subst c1 t1 running1. repeat split; try (apply tid_eqb_eq; exact Hid); auto. }
  destruct E1 as (Et & Eq & Ei & Erun).
  exists t, c1, t1, running1, qs, rt. split; [exact Hf|]. split; [exact Et|]. split; [exact Eq|]. split; [exact Ei|]. split; [exact Erun|].
  cbn [upd_task with_tasks c_queues] in Ha. rewrite Eq in Ha. split; [exact Ha|]. split; [|exact H].
  cbn [lost_assigned]. rewrite Ht. cbn [bind]. rewrite Hr1. cbn [bind]. cbn [upd_task with_tasks c_queues]. rewrite Eq, Ha. reflexivity.
Qed.

Lemma add_ready_task_dispose qs t qs' r : add_ready_task qs t = Ok (qs', r) -> exists qs1, dispose_all qs (t_prio t) = (qs1, r).
Proof.
  unfold add_ready_task. destruct (dispose_all qs (t_prio t)) as [qs1 r1]. intros H.
  apply bind_ok in H as (q & _ & H). inversion H; subst. eexists; reflexivity.
Qed.

Lemma lost_assigned_ret l : forall c running ret c' running' ret',
  QI (exL Ready ret none) [] c -> NP l (c_tasks c) -> NoDup l -> NoDup ret -> all_prefilled c ret ->
  lost_assigned c l running ret = Ok (c', running', ret') -> NoDup ret' /\ all_prefilled c' ret'.
Proof.
  induction l as [|id r IH]; intros c running ret c' running' ret' V Hnp Hndl Hnd Hap H; [inversion H; subst; split; assumption|].
  inversion Hndl as [|? ? Hni Hndl']; subst.
  destruct (lost_assigned_cons _ _ _ _ _ _ _ _ H) as (t & c1 & t1 & running1 & qs & rt & Hf & Et & Eq & Ei & _ & Ha & H1 & Hrest).
  destruct (add_ready_task_dispose _ _ _ _ Ha) as (qs1 & Hd).
  destruct (dispose_ret_prefilled ret c _ qs1 rt V Hd) as [Ndrt Hrt].
  set (c2 := with_queues (upd_task c1 (with_inst t1 (t_inst t1 + 1))) qs) in *.
  assert (Hnpid : forall w, t_state t <> Prefilled w) by (eapply Hnp; [left; reflexivity | exact Hf]).
  assert (Hkeep : forall x tx w, find_task (c_tasks c) x = Some tx -> t_state tx = Prefilled w -> find_task (c_tasks c2) x = Some tx).
  { intros x tx w Hx Hsx. cbn [c2 c_tasks with_queues upd_task with_tasks]. rewrite find_set_task. cbn [t_id with_inst]. rewrite Ei.
    destruct (tid_eqb x id) eqn:E; [|rewrite Et; exact Hx]. apply tid_eqb_eq in E. subst x. rewrite Hf in Hx. inversion Hx; subst tx.
    exfalso. exact (Hnpid _ Hsx). }
  eapply (IH c2 running1 (ret ++ rt)); [| | exact Hndl' | | | exact Hrest].
  - eapply (lost_assigned_QI [id] c running ret); [exact V | | exact H1]. intros x tx [<-|[]] Hx. eapply Hnp; [left; reflexivity | exact Hx].
  - intros x tx Hx Hfx. cbn [c2 c_tasks with_queues upd_task with_tasks] in Hfx. rewrite find_set_task in Hfx. cbn [t_id with_inst] in Hfx. rewrite Ei in Hfx.
    assert (E : tid_eqb x id = false) by (apply tid_eqb_neq; intros ->; contradiction). rewrite E, Et in Hfx.
    eapply Hnp; [right; exact Hx | exact Hfx].
  - apply nodup_app; [exact Hnd | exact Ndrt|]. intros x Hx Hx'. exact (proj1 (Hrt x Hx') Hx).
  - intros x Hx. apply in_app_or in Hx. destruct Hx as [Hx|Hx].
    + destruct (Hap x Hx) as (tx & w & Hfx & Hsx). exists tx, w. split; [eapply Hkeep; eassumption | exact Hsx].
    + destruct (Hrt x Hx) as (_ & tx & w & Hfx & Hsx). exists tx, w. split; [eapply Hkeep; eassumption | exact Hsx].
Qed.

Definition W0 (c : core) (x : tid) : Prop := exists t, find_task (c_tasks c) x = Some t /\ t_state t = Waiting 0.

Lemma lost_assigned_running l : forall c running ret c' running' ret',
  NoDup l -> (forall x, In x running -> ~ In x l /\ W0 c x) ->
  lost_assigned c l running ret = Ok (c', running', ret') -> forall x, In x running' -> W0 c' x.
Proof.
  induction l as [|id r IH]; intros c running ret c' running' ret' Hndl Hrun H; [inversion H; subst; intros x Hx; apply Hrun; exact Hx|].
  inversion Hndl as [|? ? Hni Hndl']; subst.
  destruct (lost_assigned_cons _ _ _ _ _ _ _ _ H) as (t & c1 & t1 & running1 & qs & rt & Hf & Et & Eq & Ei & Erun & Ha & H1 & Hrest).
  eapply IH; [exact Hndl' | | exact Hrest].
  intros x Hx.
  assert (Hold : In x running -> ~ In x r /\ W0 (with_queues (upd_task c1 (with_inst t1 (t_inst t1 + 1))) qs) x).
  { intros Hxr. destruct (Hrun x Hxr) as [Hnx (tx & Hfx & Hsx)]. split; [intros Hc; apply Hnx; right; exact Hc|].
    exists tx. split; [|exact Hsx]. cbn [c_tasks with_queues upd_task with_tasks]. rewrite find_set_task. cbn [t_id with_inst]. rewrite Ei.
    assert (E : tid_eqb x id = false) by (apply tid_eqb_neq; intros ->; apply Hnx; left; reflexivity). rewrite E, Et. exact Hfx. }
  destruct Erun as [->|[-> Hw0]]; [apply Hold; exact Hx|].
  apply in_app_or in Hx. destruct Hx as [Hx|[<-|[]]]; [apply Hold; exact Hx|].
  split; [exact Hni|]. exists (with_inst t1 (t_inst t1 + 1)). split; [|exact Hw0].
  cbn [c_tasks with_queues upd_task with_tasks]. rewrite find_set_task. cbn [t_id with_inst]. rewrite Ei, tid_eqb_refl. reflexivity.
Qed.

(** [on_remove_worker] is [lost_sets] (StepShape.v) followed by [after_release]. *)
Definition after_release (s0 : st) (w reason : N) (t_order : list tid) (r : core * list tid * list tid) : res st :=
  let '(c2, running, retracted) := r in
  if negb (perm_of_set t_order (map t_id (c_tasks c2))) then Disabled
  else
  do s3 <- lost_retracting (st_core s0 c2) w t_order;
  do s4 <- process_retracted s3 retracted;
  let s5 := broadcast s4 (DLostWorker w) in
  do s6 <- process_worker_lost s5 w running reason;
  do s7 <- lost_fail_running s6 reason running;
  Ok (ask_scheduling s7).

Lemma on_remove_worker_eq s w reason a p t :
  on_remove_worker s w reason a p t =
  match find_worker (c_workers (core_of s)) w with
  | None => Panic 120
  | Some wk =>
      do r <- lost_sets (with_workers (core_of s) (del_worker (c_workers (core_of s)) w)) w wk a p;
      after_release (with_procs (fst s) (del_proc (s_procs (fst s)) w), snd s) w reason t r
  end.
Proof.
  unfold on_remove_worker, lost_sets, after_release. destruct (find_worker _ w) as [wk|]; [|reflexivity].
  destruct (w_assign wk); reflexivity.
Qed.

(** The core with the lost worker removed, seen with a virtual copy of the worker. *)
Lemma vcore_del c w wk : WI c -> find_worker (c_workers c) w = Some wk ->
  WI (vcore (with_workers c (del_worker (c_workers c) w)) wk).
Proof.
  intros HW Hw. pose proof (WIX_sw _ _ HW) as Sw. destruct (find_worker_some _ _ _ Hw) as [_ Hwi].
  set (c0 := with_workers c (del_worker (c_workers c) w)).
  assert (Sw0 : wsorted (c_workers c0)) by (apply del_worker_sorted; exact Sw).
  eapply (WIX_views _ _ _ HW); [apply set_worker_sorted; exact Sw0 | exact (WIX_sr _ _ HW) | reflexivity | intros i; reflexivity | | intros i; reflexivity].
  intros x. cbn [vcore c0 c_workers upd_worker with_workers]. rewrite find_set_worker, Hwi, find_del_worker by exact Sw.
  destruct (N.eqb x w) eqn:E; [apply N.eqb_eq in E; subst x; symmetry; exact Hw | reflexivity].
Qed.

(** The multi-node lists are duplicate-free (InvWX1.v: [MND], true in every reachable state). *)
Definition MND (c : core) : Prop := forall t ws, In t (c_tasks c) -> t_state t = RunningMN ws -> NoDup ws.

Theorem release_np c w wk a_order p_order :
  WI c -> QI none [] c -> MND c -> find_worker (c_workers c) w = Some wk ->
  is_panic (lost_sets (with_workers c (del_worker (c_workers c) w)) w wk a_order p_order) = false.
Proof.
  intros HW V Hmnd Hw. unfold lost_sets.
  set (c0 := with_workers c (del_worker (c_workers c) w)).
  pose proof (WIX_sw _ _ HW) as Sw. destruct (find_worker_some _ _ _ Hw) as [Hwin Hwi].
  assert (Sw0 : wsorted (c_workers c0)) by (apply del_worker_sorted; exact Sw).
  assert (V0 : QI none [] c0) by exact V.
  destruct (w_assign wk) as [a p f|mt root] eqn:Ea.
  - destruct (perm_of_set a_order a && perm_of_set p_order p) eqn:Ep; [|reflexivity]. cbn [negb].
    apply andb_true_iff in Ep. destruct Ep as [Hpa Hpp].
    destruct (wi_sets _ _ _ (proj1 (proj2 (proj2 HW))) w wk a p f Hw Ea) as [Sa Sp].
    destruct (perm_of_set_spec _ _ Hpa Sa) as [Nda Ma]. destruct (perm_of_set_spec _ _ Hpp Sp) as [Ndp Mp].
    pose proof (vcore_del c w wk HW Hw) as W0v. fold c0 in W0v.
    destruct (lost_prefilled_tot p_order c0 wk a p f Sw0 W0v Ea Ndp (fun i Hi => proj1 (Mp i) Hi) V0) as (c1 & H1).
    rewrite H1. cbn [bind].
    destruct (lost_prefilled_V _ _ _ _ _ _ _ Sw0 W0v Ea Ndp (fun i Hi => proj1 (Mp i) Hi) H1) as (Ew1 & wk1 & p1 & Hi1 & Ea1 & Hm1 & W1).
    destruct (lost_prefilled_QI _ _ _ V0 H1) as [V1 P1].
    assert (Sw1 : wsorted (c_workers c1)) by (rewrite Ew1; exact Sw0).
    apply ex_np. eapply (lost_assigned_tot a_order c1 wk1 a p1 f [] []); [exact Sw1 | exact W1 | exact Ea1 | exact Nda | intros i Hi; apply Ma; exact Hi | exact V1 |].
    intros id tk Hin Hf wp Hst. destruct (P1 _ _ _ Hf Hst) as (tk0 & Hf0 & Hst0).
    exact (WI_asg_ok c HW wk a p f id tk0 Hwin Ea (proj1 (Ma id) Hin) Hf0 wp Hst0).
  - destruct (WI_inM_task c w wk mt root HW Hw Ea) as (t & ws & Ht & Hst & Hin).
    change (c_tasks c0) with (c_tasks c). rewrite (get_task_ok _ _ _ Ht). cbn [bind]. rewrite Hst.
    destruct ws as [|w0 rest]; [destruct Hin|].
    destruct (N.eqb w w0) eqn:Ew0; [|reflexivity].
    apply N.eqb_eq in Ew0. subst w0.
    destruct (find_task_some _ _ _ Ht) as [Htin _].
    pose proof (Hmnd t _ Htin Hst) as Hnd. apply NoDup_cons_iff in Hnd. destruct Hnd as [Hni Hnd'].
    destruct (reset_mn_all_tot rest c0) as (c1 & H1).
    { intros x Hx. destruct (WIX_M x0 c mt t (w :: rest) x HW eq_refl Ht) as (wkx & rootx & Hwx & _); [rewrite Hst; reflexivity | right; exact Hx|].
      cbn [c0 c_workers with_workers]. rewrite find_del_worker by exact Sw.
      destruct (N.eqb x w) eqn:E; [apply N.eqb_eq in E; subst x; contradiction | rewrite Hwx; discriminate]. }
    rewrite H1. cbn [bind]. cbv zeta.
    destruct (reset_mn_all_qsame _ _ _ H1) as (T1 & Q1 & _).
    match goal with |- is_panic (bind (add_ready_task ?qs ?t2) _) = false => destruct (add_ready_task_tot qs t2) as (qs' & rt & qs1 & Ha & _) end.
    { cbn [upd_task with_tasks c_queues with_inst with_state t_rq]. rewrite Q1. exact (qv_rq _ _ _ _ _ _ V _ _ Ht). }
    rewrite Ha. reflexivity.
Qed.

From HQ Require Import Cluster.InvWX1 Cluster.InvWX3 Cluster.NoPanicL0.

Record RelPost (c : core) (w : wid) (c2 : core) (running retracted : list tid) : Prop := mkRelPost {
  rp_wi : WI c2;
  rp_qi : QI (exL Ready retracted none) [] c2;
  rp_keys : keys c2 = keys c;
  rp_nd : NoDup retracted;
  rp_pf : all_prefilled c2 retracted;
  rp_run : forall x, In x running -> W0 c2 x;
  rp_scr : scr c c2;
  rp_jx : Jx w c2;
  rp_wk : wids c2 = wids (with_workers c (del_worker (c_workers c) w))
}.

Theorem release_post c w wk a_order p_order c2 running retracted :
  WI c -> QI none [] c -> CS c -> InvWX1.J c -> find_worker (c_workers c) w = Some wk ->
  lost_sets (with_workers c (del_worker (c_workers c) w)) w wk a_order p_order = Ok (c2, running, retracted) ->
  RelPost c w c2 running retracted.
Proof.
  intros HW V Hs HJ Hw Hr. unfold lost_sets in Hr.
  set (c0 := with_workers c (del_worker (c_workers c) w)) in *.
  pose proof (WIX_sw _ _ HW) as Sw. destruct (find_worker_some _ _ _ Hw) as [Hwin Hwi].
  assert (Sw0 : wsorted (c_workers c0)) by (apply del_worker_sorted; exact Sw).
  assert (V0 : QI none [] c0) by exact V.
  assert (Hs0 : CS c0) by exact Hs.
  assert (Hws0 : WS c0) by exact Sw0.
  assert (HQ : QSTMT c) by (destruct (QInv_statement c V) as (_ & Q1 & Q2 & _); split; assumption).
  assert (HWS : WSTMT c) by (apply WI_worker_sets_ok; exact HW).
  assert (Q0 : QA c0) by (eapply QA_tasks_queues; [| |apply QSTMT_QA; exact HQ]; reflexivity).
  assert (Jx0 : Jx w c0) by (apply Jx_del; exact HJ).
  destruct (w_assign wk) as [a p f|mt root] eqn:Ea.
  - destruct (perm_of_set a_order a && perm_of_set p_order p) eqn:Ep; [|discriminate]. cbn [negb] in Hr.
    apply andb_true_iff in Ep. destruct Ep as [Hpa Hpp].
    destruct (wi_sets _ _ _ (proj1 (proj2 (proj2 HW))) w wk a p f Hw Ea) as [Sa Sp].
    destruct (perm_of_set_spec _ _ Hpa Sa) as [Nda Ma]. destruct (perm_of_set_spec _ _ Hpp Sp) as [Ndp Mp].
    pose proof Hr as Hr0. apply bind_ok in Hr as (c1 & H1 & H2).
    destruct (lost_prefilled_QI _ _ _ V0 H1) as [V1 P1].
    assert (Hnp : NP a_order (c_tasks c1)).
    { intros id tk Hin Hf wp Hst. destruct (P1 _ _ _ Hf Hst) as (tk0 & Hf0 & Hst0).
      exact (WI_asg_ok c HW wk a p f id tk0 Hwin Ea (proj1 (Ma id) Hin) Hf0 wp Hst0). }
    pose proof (lost_prefilled_frame _ _ _ Hs0 H1) as E1.
    destruct (lost_prefilled_QA _ _ _ Q0 H1) as [S1 _].
    assert (S01 : scr c c1) by (eapply scr_trans; [apply (scr_tasks _ c0); reflexivity | exact S1]).
    pose proof (lost_prefilled_wids _ _ _ Hws0 H1) as Wd1.
    destruct (lost_assigned_ret a_order c1 [] [] c2 running retracted V1 Hnp Nda (NoDup_nil _)) as [Ndr Hpf]; [intros x [] | exact H2 |].
    constructor.
    + eapply (lost_release_sn c w wk); eassumption.
    + eapply (lost_assigned_QI a_order c1 [] []); [exact V1 | exact Hnp | exact H2].
    + rewrite (lost_assigned_frame _ _ _ _ _ _ _ (CS_keys _ _ E1 Hs0) H2). exact E1.
    + exact Ndr.
    + exact Hpf.
    + eapply (lost_assigned_running a_order c1 [] []); [exact Nda | intros x [] | exact H2].
    + eapply scr_trans; [exact S01|]. eapply lost_assigned_scr; [|exact H2].
      eapply zlist_scr; [exact S01|]. intros id tk Hin Ef. eapply (WSTMT_assigned _ _ _ _ _ _ HWS Hw Ea); [|exact Ef].
      eapply perm_of_set_sub; eassumption.
    + eapply Jx_R; [exact Jx0|]. eapply InvWX1.R_trans; [eapply lost_prefilled_R; exact H1 | eapply lost_assigned_R; exact H2].
    + rewrite (lost_assigned_wids _ _ _ _ _ _ _ (WS_eq _ _ Wd1 Hws0) H2). exact Wd1.
  - apply bind_ok in Hr as (tk & Ht & Hr). apply get_task_find in Ht. cbn [c0 c_tasks with_workers] in Ht.
    destruct (find_task_some _ _ _ Ht) as [Htin Hid].
    destruct (t_state tk) as [n|w1 rv1|w1|w1|w1 rv1|ws|] eqn:Est; try discriminate. destruct ws as [|w0 rest] eqn:Ews; [discriminate|].
    assert (Hpm : pl (t_state tk) = PM (w0 :: rest)) by (rewrite Est; reflexivity).
    destruct (N.eqb w w0) eqn:Ew0.
    + apply N.eqb_eq in Ew0. subst w0.
      apply bind_ok in Hr as (c1 & Hc1 & Hr). apply bind_ok in Hr as ([qs ret] & Ha & Hr).
      inversion Hr; subst c2 running retracted. clear Hr.
      pose proof (reset_mn_all_qsame _ _ _ Hc1) as Hqs. pose proof (QI_same _ _ _ _ Hqs V0) as V1. destruct Hqs as (T1 & Q1 & R1 & _).
      assert (T1' : c_tasks c1 = c_tasks c) by exact T1.
      pose proof (reset_mn_all_frame _ _ _ Hc1) as E1.
      set (t2 := with_inst (with_state tk (Waiting 0)) (t_inst tk + 1)) in *.
      assert (Ek : keys (upd_task c1 t2) = keys c).
      { transitivity (keys c1); [|exact E1]. apply (upd_task_frame c1 mt tk); [eapply CS_keys; [exact E1 | exact Hs0] | rewrite T1'; exact Ht | reflexivity | reflexivity]. }
      destruct (add_ready_task_dispose _ _ _ _ Ha) as (qs1 & Hd).
      assert (V1e : QI (exL Ready [] none) [] c1) by exact V1.
      cbn [upd_task with_tasks c_queues] in Hd.
      destruct (dispose_ret_prefilled [] c1 _ qs1 ret V1e Hd) as [Ndrt Hrt].
      constructor.
      * assert (W1 : WIX (xadd x0 mt) c1).
        { eapply (C_relM_reset x0 c mt tk (w :: rest) c0 rest c1); [exact HW | reflexivity | exact Ht | exact Hpm | reflexivity | reflexivity | reflexivity
            | apply del_worker_sorted; exact Sw | | | | | exact Hc1].
          - intros x Hx. cbn [n_mem] in Hx. apply orb_false_iff in Hx. destruct Hx as [E1' _].
            cbn [c0 c_workers with_workers]. rewrite find_del_worker by exact Sw. rewrite E1'. reflexivity.
          - intros x _. cbn [c0 c_workers with_workers]. rewrite find_del_worker by exact Sw. destruct (N.eqb x w); auto.
          - intros x Hx. cbn [n_mem] in Hx. cbn [c0 c_workers with_workers]. rewrite find_del_worker by exact Sw.
            destruct (N.eqb x w); [right; reflexivity | left; exact Hx].
          - intros x Hx. cbn [n_mem]. rewrite Hx. apply orb_true_r. }
        refine (WIX_frame _ (upd_task c1 t2) _ eq_refl eq_refl eq_refl eq_refl _).
        exact (C_show _ _ W1 x0 mt t2 ltac:(xs) ltac:(xs) Hid (or_introl eq_refl)).
      * rewrite <- T1' in Ht. qi_simpl.
        eapply QV_ext.
        -- eapply QV_requeue; [exact V1 | exact Ht | exact (find_task_id _ _ _ Ht) | reflexivity | reflexivity | | | reflexivity | cbn; discriminate | exact Ha].
           ++ unfold exp_place, none. rewrite Est. discriminate.
           ++ eapply QV_no_redirect; [exact V1 | exact Ht | intros w1; congruence].
        -- intros x tx _. unfold exL, exR, none. destruct (tid_mem x ret); [reflexivity|]. destruct (tid_eqb x mt); reflexivity.
      * exact Ek.
      * exact Ndrt.
      * intros x Hx. destruct (Hrt x Hx) as (_ & tx & wx & Hfx & Hsx). exists tx, wx. split; [|exact Hsx].
        cbn [c_tasks with_queues upd_task with_tasks]. rewrite find_set_task. cbn [t2 t_id with_inst with_state]. rewrite Hid.
        destruct (tid_eqb x mt) eqn:E; [|exact Hfx]. apply tid_eqb_eq in E. subst x. rewrite T1', Ht in Hfx. inversion Hfx; subst tx. congruence.
      * intros x [<-|[]]. exists t2. split; [|reflexivity].
        cbn [c_tasks with_queues upd_task with_tasks]. rewrite find_set_task. cbn [t2 t_id with_inst with_state]. rewrite Hid, tid_eqb_refl. reflexivity.
      * eapply (scr_upd _ c1 _ mt tk); [exact T1' | exact Ht | reflexivity | edges | cbn; ststep].
      * eapply Jx_R; [exact Jx0|]. eapply InvWX1.R_trans; [eapply reset_mn_all_R; exact Hc1|].
        eapply (R_set_ok _ _ t2); [reflexivity | apply Dm_eq; reflexivity | exact I].
      * exact (reset_mn_all_wids _ _ _ Hws0 Hc1).
    + inversion Hr; subst c2 running retracted. clear Hr. constructor.
      * eapply (C_shrinkM x0 c HW mt tk (w0 :: rest) w); [reflexivity | exact Ht | exact Hpm | | exact Hid | reflexivity].
        unfold inM. rewrite Hw, Ea, tid_eqb_refl. reflexivity.
      * qi_simpl.
        eapply QV_task0; [exact V0 | exact Ht | exact (find_task_id _ _ _ Ht) | reflexivity | reflexivity | reflexivity | | |].
        -- unfold exp_place, none. rewrite Est. reflexivity.
        -- intros v Hv. exfalso. rewrite (QV_no_redirect _ _ _ _ _ _ _ _ V0 Ht) in Hv; [discriminate | intros w1; congruence].
        -- cbn. discriminate.
      * apply (upd_task_frame c0 mt tk); [exact Hs0 | exact Ht | reflexivity | reflexivity].
      * constructor.
      * intros x [].
      * intros x [].
      * eapply (scr_upd _ c0 _ mt tk); [reflexivity | exact Ht | reflexivity | edges | ststep].
      * eapply Jx_R; [exact Jx0|].
        pose proof (HJ tk Htin) as Hok. rewrite Est in Hok. cbn in Hok. destruct Hok as [_ Hnd].
        eapply (R_set_ok _ _ (with_state tk (RunningMN (filter (fun x => negb (N.eqb x w)) (w0 :: rest))))); [reflexivity | apply Dm_eq; reflexivity |].
        cbn [okst t_state with_state]. split; [|apply NoDup_filter; exact Hnd].
        cbn [filter]. rewrite N.eqb_sym, Ew0. cbn [negb]. discriminate.
      * reflexivity.
Qed.
