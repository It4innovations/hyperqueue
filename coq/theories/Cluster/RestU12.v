(** C02 "at rest": [NB] is kept by the worker side, hence by every operation; it holds in every
    reachable state; and the theorems on states at rest.

    The worker side: a worker process never drops a running task without a report, except when
    the stop flag of its future is [SCancel] (excluded for tasks the core knows by [RestU3.SCN]);
    and a running report of a task is only sent when the task is in the running set afterwards.

    [at_rest_waiting_or_backlog]: in a reachable state at rest every task of the core is
    [Waiting _], or [Prefilled w] with exactly one entry in the backlog of the process of [w].
    [at_rest_all_waiting]: if moreover the backlogs are empty, every task is [Waiting _]. *)
From HQ Require Import Base.Prelude Cluster.Types Cluster.Core Cluster.Worker Cluster.NoPanicU0 Cluster.NoPanicU1 Cluster.NoPanicU2 Cluster.NoPanicU4 Cluster.ExecU1 Cluster.ExecU19 Cluster.RestU3 Cluster.RestU4 Cluster.Reactor Cluster.Server Cluster.Sys Cluster.BijCore Cluster.BijReact Cluster.BijFinal Cluster.InvWBase Cluster.InvWX3 Cluster.InvDStep Cluster.InvBundle Cluster.InvProcsDef Cluster.NoPanicC1 Cluster.NoPanicL0 Cluster.NoPanicU20 Cluster.ExecU13 Cluster.RestU1 Cluster.RestU11.
From HQ Require Import Cluster.StepShape.
From HQ Require Import Cluster.ModelFacts.
From Coq Require Import Sorting.Sorted.
Local Open Scope N_scope.

Definition nrun (p : wproc) (x : tid) : Prop := run_find (p_running p) x = None.

Lemma runs_app x a b : runs x (a ++ b) <-> runs x a \/ runs x b.
Proof.
  unfold runs. split.
  - intros (rv & [H|H]); apply in_app_iff in H; destruct H as [H|H]; [left | right | left | right]; exists rv; auto.
  - intros [(rv & [H|H])|(rv & [H|H])]; exists rv; [left | right | left | right]; apply in_app_iff; auto.
Qed.
Lemma runs_nil x : ~ runs x [].
Proof. intros (rv & [[]|[]]). Qed.

Lemma try_start_nrun q t rv pre alloc q1 u l st x : try_start_task q t rv pre alloc = (q1, u, l, st) ->
  nrun q1 x -> nrun q x /\ ~ runs x u.
Proof.
  unfold try_start_task, nrun. destruct (tid_mem (wt_id t) (p_failnext q)); intros H; inversion H; subst; cbn [p_running wp_failnext wp_upd].
  - intros Hn. split; [exact Hn|]. intros (rv0 & [[E|[]]|[E|[]]]); discriminate.
  - rewrite run_find_set. destruct (tid_eqb x (wt_id t)) eqn:E; [discriminate|]. intros Hn. split; [exact Hn|].
    intros (rv0 & [[E0|[]]|[E0|[]]]); destruct pre; inversion E0; subst; rewrite tid_eqb_refl in E; discriminate.
Qed.

Lemma prefill_loop_nrun fuel x : forall q rq rv alloc ups ls q' ups' ls' used,
  prefill_loop fuel q rq rv alloc ups ls = (q', ups', ls', used) ->
  (forall u, In u ups -> In u ups') /\ (nrun q' x -> nrun q x /\ (runs x ups' -> runs x ups)).
Proof.
  induction fuel as [|k IH]; intros q rq rv alloc ups ls q' ups' ls' used H; cbn [prefill_loop] in H.
  - inversion H; subst. split; [auto|]. intros Hn. split; [exact Hn | auto].
  - assert (Hstop : (wp_free q (res_add (p_free q) alloc), ups, ls, false) = (q', ups', ls', used) ->
              (forall u, In u ups -> In u ups') /\ (nrun q' x -> nrun q x /\ (runs x ups' -> runs x ups))).
    { intros E. inversion E; subst. split; [auto|]. intros Hn. split; [exact Hn | auto]. }
    destruct (pop_last (bl_get (p_backlog q) rq)) as [[t rest]|]; [|exact (Hstop H)].
    destruct (bl_has (p_backlog q) rq); [|exact (Hstop H)].
    match type of H with context [try_start_task ?p0 t rv true alloc] => destruct (try_start_task p0 t rv true alloc) as [[[q1 u] l] started] eqn:Et end.
    pose proof (try_start_nrun _ _ _ _ _ _ _ _ _ x Et) as W1. unfold nrun in W1. cbn [p_running wp_backlog wp_upd] in W1.
    destruct started.
    + inversion H; subst. split; [intros u0 Hu; apply in_app_iff; left; exact Hu|]. intros Hn. destruct (W1 Hn) as [A B]. split; [exact A|].
      intros Hr. apply runs_app in Hr. destruct Hr as [Hr|Hr]; [exact Hr | contradiction].
    + destruct (IH _ _ _ _ _ _ _ _ _ _ H) as [I1 I2]. split; [intros u0 Hu; apply I1; apply in_app_iff; left; exact Hu|].
      intros Hn. destruct (I2 Hn) as [A B]. destruct (W1 A) as [A1 B1]. split; [exact A1|].
      intros Hr. apply B in Hr. apply runs_app in Hr. destruct Hr as [Hr|Hr]; [exact Hr | contradiction].
Qed.

Lemma compute_loop_nrun ts x : forall q ups ls q' ups' ls', compute_loop q ts ups ls = Ok (q', ups', ls') ->
  nrun q' x -> nrun q x /\ (runs x ups' -> runs x ups).
Proof.
  induction ts as [|ct r IH]; intros q ups ls q' ups' ls' H; cbn [compute_loop] in H; [inversion H; subst; intros Hn; split; [exact Hn | auto]|].
  destruct (ct_rv ct) as [rv|].
  - apply bind_ok in H. destruct H as (rq & _ & H). destruct (negb (N.eqb rv 0)); [discriminate|].
    destruct (res_fits (p_free q) (rq_res rq)).
    + match type of H with context [try_start_task ?p0 ?t rv false ?a] => destruct (try_start_task p0 t rv false a) as [[[q1 u] l] started] eqn:Et end.
      pose proof (try_start_nrun _ _ _ _ _ _ _ _ _ x Et) as W1. unfold nrun in W1. cbn [p_running wp_free wp_upd] in W1.
      destruct started.
      * intros Hn. destruct (IH _ _ _ _ _ _ H Hn) as [A B]. destruct (W1 A) as [A1 B1]. split; [exact A1|].
        intros Hr. apply B in Hr. apply runs_app in Hr. destruct Hr as [Hr|Hr]; [exact Hr | contradiction].
      * match type of H with context [prefill_loop ?f q1 ?a ?b ?c ?d ?e] => destruct (prefill_loop f q1 a b c d e) as [[[q2 u2] l2] usd] eqn:Ep end.
        destruct (prefill_loop_nrun _ x _ _ _ _ _ _ _ _ _ _ Ep) as [_ W2].
        intros Hn. destruct (IH _ _ _ _ _ _ H Hn) as [A B]. destruct (W2 A) as [A2 B2]. destruct (W1 A2) as [A1 B1]. split; [exact A1|].
        intros Hr. apply B, B2 in Hr. apply runs_app in Hr. destruct Hr as [Hr|Hr]; [exact Hr | contradiction].
    + intros Hn. destruct (IH _ _ _ _ _ _ H Hn) as [A B]. split; [exact A|]. intros Hr. apply B in Hr. apply runs_app in Hr.
      destruct Hr as [Hr|(rv0 & [[E|[]]|[E|[]]])]; [exact Hr | discriminate | discriminate].
  - intros Hn. exact (IH _ _ _ _ _ _ H Hn).
Qed.

Lemma irun_runs x us b rv : In (IRun b rv) (flat_map (uitem_of x) us) -> runs x us.
Proof.
  intros H. apply in_flat_map in H. destruct H as (u & Hu & Hi). destruct u; cbn [uitem_of] in Hi; unfold sel in Hi;
    try (destruct (tid_eqb _ _) eqn:E; [|destruct Hi]; destruct Hi as [Hi|[]]; try discriminate); try destruct Hi.
  - apply tid_eqb_eq in E. subst t. exists rv0. left. exact Hu.
  - apply tid_eqb_eq in E. subst t. exists rv0. right. exact Hu.
Qed.

Lemma uitems_one x us : uitems x [UUpdates us] = flat_map (uitem_of x) us.
Proof. cbn [uitems flat_map uitems_msg]. apply app_nil_r. Qed.

Definition no_irun (l : list uitem) : Prop := forall b rv, ~ In (IRun b rv) l.

Lemma nrun_same p p' x : p_up p' = p_up p -> p_id p' = p_id p -> p_running p' = p_running p ->
  exists newm, p_up p' = p_up p ++ newm /\ p_id p' = p_id p /\ (nrun p' x -> nrun p x /\ no_irun (uitems x newm)).
Proof. intros U I R. exists []. rewrite app_nil_r. unfold nrun. rewrite R. repeat split; auto. intros b rv []. Qed.

Lemma pwm_nrun p m order p' ls x : StronglySorted N.lt (map fst (p_backlog p)) -> process_worker_message p m order = Ok (p', ls) ->
  exists newm, p_up p' = p_up p ++ newm /\ p_id p' = p_id p /\ (nrun p' x -> nrun p x /\ no_irun (uitems x newm)).
Proof.
  intros Hs H. destruct m as [ts|ids|ids|w0|w0|rq def|]; cbn [process_worker_message] in H.
  - apply bind_ok in H. destruct H as ([[p1 ups] ls1] & H1 & H).
    destruct (compute_loop_eff _ _ _ _ _ _ _ H1 Hs) as (_ & U1 & _).
    destruct (compute_loop_wr _ x _ _ _ _ _ _ H1) as (I1 & _).
    pose proof (compute_loop_nrun _ x _ _ _ _ _ _ H1) as W1.
    destruct ups as [|u0 ur]; inversion H; subst.
    + exists []. rewrite app_nil_r. split; [exact U1|]. split; [exact I1|]. intros Hn. split; [exact (proj1 (W1 Hn)) | intros b rv []].
    + exists [UUpdates (u0 :: ur)]. unfold send_up. cbn [p_up p_id wp_up wp_upd p_running]. split; [rewrite U1; reflexivity|]. split; [exact I1|].
      intros Hn. destruct (W1 Hn) as [A B]. split; [exact A|]. intros b rv Hi. rewrite uitems_one in Hi.
      exact (runs_nil x (B (irun_runs _ _ _ _ Hi))).
  - destruct (negb _); [discriminate|]. destruct (retract_from _ _ _ _) as [b out].
    destruct ids; inversion H; subst.
    + apply nrun_same; reflexivity.
    + exists [URetractResponse out]. unfold send_up. cbn [p_up p_id wp_up wp_upd wp_backlog p_running nrun]. repeat split; auto.
      intros b0 rv Hi. cbn [uitems flat_map uitems_msg] in Hi. rewrite app_nil_r in Hi. apply in_flat_map in Hi. destruct Hi as (y & _ & Hy).
      unfold sel in Hy. destruct (tid_eqb y x); [destruct Hy as [Hy|[]]; discriminate | destruct Hy].
  - inversion H; subst.
    assert (E : forall l q, p_running (fold_left cancel_task l q) = p_running q /\ p_up (fold_left cancel_task l q) = p_up q /\ p_id (fold_left cancel_task l q) = p_id q).
    { induction l as [|i r IH]; intros q; [auto|]. cbn [fold_left]. destruct (IH (cancel_task q i)) as (A & B & C). destruct (cancel_task_eff q i) as (U & _ & _ & _ & R & _).
      assert (Ei : p_id (cancel_task q i) = p_id q).
      { unfold cancel_task. destruct (run_find _ i); [destruct (fu_find _ i) as [[|]|]|]; reflexivity. }
      repeat split; congruence. }
    destruct (E ids p) as (A & B & C). apply nrun_same; assumption.
  - inversion H; subst. apply nrun_same; reflexivity.
  - inversion H; subst. apply nrun_same; reflexivity.
  - destruct (N.eqb _ _); [|discriminate]. inversion H; subst. apply nrun_same; reflexivity.
  - inversion H; subst. apply nrun_same; reflexivity.
Qed.

Lemma task_end_nrun p t how p' ls x : StronglySorted tlt (map fst (p_running p)) -> StronglySorted N.lt (map fst (p_backlog p)) ->
  task_end p t how = Ok (p', ls) ->
  exists newm, p_up p' = p_up p ++ newm /\ p_id p' = p_id p /\
    (nrun p' x -> no_irun (uitems x newm) /\ (nrun p x \/ (x = t /\ (uitems x newm = [] -> scan p x)))).
Proof.
  intros Hsr Hs H. unfold task_end in H. destruct (fu_find (p_futures p) t) as [stop|] eqn:Ef; [|discriminate].
  destruct (run_find (p_running p) t) as [rv|] eqn:Ert; [|discriminate]. destruct (al_find (p_alloc p) t) as [[|rq alloc]|]; try discriminate.
  match type of H with context [prefill_loop ?f ?q0 ?a ?b ?c ?u0 []] => destruct (prefill_loop f q0 a b c u0 []) as [[[p1 ups1] ls1] usd] eqn:Ep end.
  match type of Ep with prefill_loop _ ?q0 _ _ _ ?u0 [] = _ => set (p0 := q0) in *; set (ups0 := u0) in * end.
  destruct (prefill_loop_eff _ _ _ _ _ _ _ _ _ _ _ Ep Hs) as (_ & U1 & _).
  destruct (prefill_loop_wr _ x _ _ _ _ _ _ _ _ _ _ Ep) as (I1 & _).
  destruct (prefill_loop_nrun _ x _ _ _ _ _ _ _ _ _ _ Ep) as [Sub W1].
  assert (R0 : ~ runs x ups0).
  { subst ups0. intros (rv0 & [Hr|Hr]); destruct how; [| |destruct stop as [[|]|]| | |destruct stop as [[|]|]]; cbn [In] in Hr;
      repeat match goal with Hd : _ \/ _ |- _ => destruct Hd end; try discriminate; try contradiction. }
  assert (E0 : ups0 = [] -> scan p t).
  { subst ups0. unfold scan. destruct how; [discriminate | discriminate|]. destruct stop as [[|]|]; [intros _; exact Ef | discriminate | discriminate]. }
  assert (T0 : ups0 <> [] -> In (UFinished t) ups0 \/ exists k, In (UFailed t k) ups0).
  { subst ups0. destruct how; [left; left; reflexivity | right; exists FTask; left; reflexivity|]. destruct stop as [[|]|]; [congruence | right; exists FTimeLimit; left; reflexivity | left; left; reflexivity]. }
  match type of H with (let '(_, _) := ?e in _) = _ => destruct e as [p2 ups2] eqn:E2 end.
  assert (A2 : p_running p2 = p_running p1 /\ p_up p2 = p_up p1 /\ p_id p2 = p_id p1 /\ (runs x ups2 -> runs x ups1) /\ (forall u, In u ups1 -> In u ups2)).
  { destruct (negb usd); inversion E2; subst; cbn [p_running p_up p_id wp_blocked wp_upd]; repeat split; auto.
    - intros Hr. apply runs_app in Hr. destruct Hr as [Hr|(rv0 & [Hr|Hr])]; [exact Hr| |]; apply in_map_iff in Hr; destruct Hr as (b & E & _); discriminate.
    - intros u Hu. apply in_app_iff. left. exact Hu. }
  destruct A2 as (R2 & U2 & I2 & Hruns & Sub2).
  assert (Hfinal : nrun p2 x -> ~ runs x ups2 /\ (nrun p x \/ (x = t /\ (ups2 = [] -> scan p x)))).
  { intros Hn. unfold nrun in Hn. rewrite R2 in Hn. destruct (W1 Hn) as [A B]. split; [intros Hr; exact (R0 (B (Hruns Hr)))|].
    unfold nrun in A. cbn [p0 p_running wp_upd] in A. rewrite (run_find_del _ t x Hsr) in A. destruct (tid_eqb x t) eqn:E.
    - apply tid_eqb_eq in E. subst x. right. split; [reflexivity|]. intros E2'. apply E0. destruct ups0 as [|u0 ur]; [reflexivity|].
      exfalso. subst ups2. exact (Sub2 u0 (Sub u0 (or_introl eq_refl))).
    - left. exact A. }
  assert (Up : p_up p2 = p_up p) by (rewrite U2, U1; reflexivity).
  assert (Idp : p_id p2 = p_id p) by (rewrite I2, I1; reflexivity).
  destruct ups2 as [|u0 ur] eqn:Eu2; inversion H; subst p' ls.
  - exists []. rewrite app_nil_r. split; [exact Up|]. split; [exact Idp|]. intros Hn. destruct (Hfinal Hn) as [A B]. split; [intros b rv1 []|].
    destruct B as [B|[Ex B]]; [left; exact B | right; split; [exact Ex | intros _; apply B; reflexivity]].
  - exists [UUpdates (u0 :: ur)]. unfold send_up. cbn [p_up p_id wp_up wp_upd]. split; [rewrite Up; reflexivity|]. split; [exact Idp|].
    intros Hn. change (nrun p2 x) in Hn. destruct (Hfinal Hn) as [A B]. split; [intros b rv1 Hi; rewrite uitems_one in Hi; exact (A (irun_runs _ _ _ _ Hi))|].
    destruct B as [B|[Ex B]]; [left; exact B|]. right. split; [exact Ex|]. intros Hempty. subst x. rewrite uitems_one in Hempty.
    destruct ups0 as [|v0 vr] eqn:Eu0; [apply E0; reflexivity|]. exfalso.
    assert (Hin : forall u, In u (v0 :: vr) -> In u (u0 :: ur)) by (intros u Hu; apply Sub2, Sub, Hu).
    assert (Hne : forall it u, In u (u0 :: ur) -> In it (uitem_of t u) -> False).
    { intros it u Hu Hit. assert (X : In it (flat_map (uitem_of t) (u0 :: ur))) by (apply in_flat_map; exists u; auto). rewrite Hempty in X. exact X. }
    destruct (T0 ltac:(discriminate)) as [Hf|(k & Hf)].
    + apply (Hne IFin _ (Hin _ Hf)). cbn [uitem_of]. unfold sel. rewrite tid_eqb_refl. left. reflexivity.
    + apply (Hne (IFail k) _ (Hin _ Hf)). cbn [uitem_of]. unfold sel. rewrite tid_eqb_refl. left. reflexivity.
Qed.

Lemma local_none_nrun p x : local p x = LNone -> nrun p x.
Proof. unfold local, nrun. destruct (run_find (p_running p) x); [destruct (bl_count x (p_backlog p)); discriminate | reflexivity]. Qed.
Lemma nrun_local p x rv : nrun p x -> local p x <> LRun rv.
Proof. unfold local, nrun. intros ->. destruct (bl_count x (p_backlog p)) as [|[|n]]; discriminate. Qed.

Lemma noirun_of U : no_irun U -> noirun U = true.
Proof. intros H. unfold noirun. apply forallb_forall. intros it Hin. destruct it; try reflexivity. exfalso. exact (H _ _ Hin). Qed.

(** appending reports that contain no running message, the task not being in the running set *)
Lemma bad_append v U L D N0 : lang v U L D = true -> (forall rv, L <> LRun rv) -> badw v U L = false -> noirun N0 = true ->
  badw v (U ++ N0) LNone = false.
Proof.
  intros Hl HL Hg Hn. destruct (badw v (U ++ N0) LNone) eqn:Hb; [exfalso | reflexivity]. cbn [badw is_lnone andb] in Hb.
  destruct U as [|i1 [|i2 U]]; cbn [app] in Hb.
  - destruct N0 as [|j1 [|j2 N0]]; [| |destruct j1; discriminate].
    + destruct L; try (exfalso; exact (HL _ eq_refl)); destruct v as [|vrv| | |vrv|[|]]; try discriminate; crunch Hl; cbn in Hg; discriminate.
    + destruct j1; first [discriminate | cbn in Hn; discriminate].
  - destruct N0 as [|j1 N0]; [|destruct i1; discriminate]. destruct i1; try discriminate.
    destruct L; try (exfalso; exact (HL _ eq_refl)); try (cbn in Hg; discriminate); destruct v as [|vrv| | |vrv|[|]]; crunch Hl.
  - destruct i1; discriminate.
Qed.
Lemma bad_append_ne v U N0 : N0 <> [] -> noirun N0 = true -> badw v (U ++ N0) LNone = false.
Proof.
  intros Hne Hn. destruct N0 as [|j1 N0]; [congruence|]. destruct U as [|i1 [|i2 U]]; cbn [app badw is_lnone andb].
  - destruct j1; cbn in Hn; try discriminate; destruct N0; reflexivity.
  - destruct i1; reflexivity.
  - destruct i1; reflexivity.
Qed.

Lemma timer_fold_body ts : forall p, let p' := fold_left timer_fire ts p in p_running p' = p_running p /\ p_id p' = p_id p.
Proof.
  induction ts as [|t r IH]; intros p; cbn [fold_left]; [auto|]. destruct (IH (timer_fire p t)) as (A & B). cbv zeta in *.
  rewrite A, B. unfold timer_fire. cbn. destruct (fu_find _ t) as [[|]|]; auto.
Qed.

Theorem NB_worker s o s' outs : ~ server_op o -> INV s -> RWA (s_core s) -> PROTO s -> SCN s -> NB s -> step s o = Ok (s', outs) -> NB s'.
Proof.
  intros Ho HI HR HP HS HN H. pose proof (pr_sorted _ HP) as Hps.
  (* one process replaced, core and job layer unchanged *)
  assert (Hset : forall w p p', find_proc (s_procs s) w = Some p -> p_id p' = w -> s' = with_procs s (set_proc (s_procs s) p') ->
            (forall x t, find_task (c_tasks (s_core s)) x = Some t ->
               badw (view_of (t_state t) w (job_running (s_hq s) x)) (uitems x (p_up p)) (local p x) = false ->
               lang (view_of (t_state t) w (job_running (s_hq s) x)) (uitems x (p_up p)) (local p x) (ditems x (p_down p)) = true ->
               badw (view_of (t_state t) w (job_running (s_hq s) x)) (uitems x (p_up p')) (local p' x) = false) -> NB s').
  { intros w p p' Hp Hid -> Hstep w' q x t Hq Hf. cbn [s_procs with_procs s_core s_hq] in *. rewrite find_set_proc, Hid in Hq.
    destruct (N.eqb w' w) eqn:E; [|exact (HN w' q x t Hq Hf)]. apply N.eqb_eq in E. subst w'. injection Hq as <-.
    apply Hstep; [exact Hf | exact (HN w p x t Hp Hf) | exact (pr_words _ HP w p x t Hp Hf)]. }
  destruct o; try (exfalso; apply Ho; exact I); clear Ho.
  - cbn [step] in H. unfold on_new_worker in H. cbv zeta in H. inversion H; subst s' outs. clear H.
    change (core_of (s, [])) with (s_core s). set (wn := c_wcounter (s_core s) + 1) in *.
    intros w q x t Hq Hf. cbn [fst snd emit ask_scheduling st_core with_core with_procs broadcast core_of s_core s_hq s_procs upd_worker with_workers with_flag with_wcounter c_tasks] in Hq, Hf |- *.
    rewrite find_set_proc in Hq. cbn [new_proc p_id] in Hq. destruct (N.eqb w wn) eqn:E.
    + apply N.eqb_eq in E. subst w. injection Hq as <-. rewrite (new_worker_view s x t _ HI HR Hf). reflexivity.
    + rewrite (find_map_proc (fun p => push_down p (DNewWorker wn))) in Hq by reflexivity.
      destruct (find_proc (s_procs s) w) as [p|] eqn:Hp; [|discriminate]. injection Hq as <-.
      change (local (push_down p (DNewWorker wn)) x) with (local p x). cbn [push_down p_up]. exact (HN w p x t Hp Hf).
  - cbn [step] in H. destruct (find_proc (s_procs s) w) as [p|] eqn:Hp; [|discriminate].
    destruct (p_down p) as [|m rest] eqn:Ed; [discriminate|]. apply bind_ok in H. destruct H as ([p' ls] & Hm & H). inversion H; subst s' outs. clear H.
    destruct (find_proc_some _ _ _ Hp) as [_ Hid].
    assert (Hbs : StronglySorted N.lt (map fst (p_backlog (wp_down p rest)))) by exact (backlog_sorted s w p HP Hp).
    apply (Hset w p p' Hp); [destruct (pwm_nrun _ _ _ _ _ (1, 1) Hbs Hm) as (nm & _ & Ei & _); rewrite Ei; exact Hid | reflexivity|].
    intros x t Hf Hg Hl. destruct (pwm_nrun _ _ _ _ _ x Hbs Hm) as (nm & Eu & Ei & Hn). cbn [wp_down wp_upd p_up] in Eu.
    destruct (local p' x) eqn:EL; try reflexivity. rewrite Eu, uitems_app.
    destruct (Hn (local_none_nrun _ _ EL)) as [A B].
    apply (bad_append _ _ _ _ _ Hl); [intros rv; apply nrun_local; exact A | exact Hg | apply noirun_of; exact B].
  - cbn [step] in H. destruct (find_proc (s_procs s) w) as [p|] eqn:Hp; [|discriminate].
    apply bind_ok in H. destruct H as ([p' ls] & Hm & H). inversion H; subst s' outs. clear H.
    destruct (find_proc_some _ _ _ Hp) as [Hin Hid].
    pose proof (backlog_sorted s w p HP Hp) as Hbs.
    pose proof (proj1 (local_ok_LOK _) (pr_local _ HP _ _ Hp)) as HL.
    assert (Hrs : StronglySorted tlt (map fst (p_running p))) by exact (lok_sorted _ HL).
    apply (Hset w p p' Hp); [destruct (task_end_nrun _ _ _ _ _ (1, 1) Hrs Hbs Hm) as (nm & _ & Ei & _); rewrite Ei; exact Hid | reflexivity|].
    intros x tk Hf Hg Hl. destruct (task_end_nrun _ _ _ _ _ x Hrs Hbs Hm) as (nm & Eu & Ei & Hn).
    destruct (local p' x) eqn:EL; try reflexivity. rewrite Eu, uitems_app.
    destruct (Hn (local_none_nrun _ _ EL)) as [B [A|[Ex A]]].
    + apply (bad_append _ _ _ _ _ Hl); [intros rv; apply nrun_local; exact A | exact Hg | apply noirun_of; exact B].
    + destruct (uitems x nm) as [|i1 r1] eqn:En.
      * rewrite (HS p x Hin (A eq_refl)) in Hf. discriminate.
      * apply bad_append_ne; [discriminate | apply noirun_of; exact B].
  - cbn [step] in H. destruct (find_proc (s_procs s) w) as [p|] eqn:Hp; [|discriminate]. inversion H; subst s' outs.
    destruct (find_proc_some _ _ _ Hp) as [_ Hid].
    apply (Hset w p (wp_failnext p (p_failnext p ++ [t])) Hp); [exact Hid | reflexivity|]. intros x tk Hf Hg Hl. exact Hg.
  - cbn [step] in H. inversion H; subst s' outs. intros w q x t Hq Hf. cbn [s_procs with_procs s_core s_hq] in *.
    rewrite (find_map_proc (fun p => fold_left timer_fire (p_timers p) p)) in Hq by (intros p; exact (proj2 (timer_fold_body _ p))).
    destruct (find_proc (s_procs s) w) as [p|] eqn:Hp; [|discriminate]. injection Hq as <-.
    destruct (timer_fold_frame (p_timers p) p) as (_ & B & C). destruct (timer_fold_body (p_timers p) p) as (A & _). cbv zeta in *.
    unfold local. rewrite A, B, C. exact (HN w p x t Hp Hf).
Qed.

Theorem step_NB s o s' outs : INV s -> INV s' -> RWA (s_core s) -> PROTO s -> PROTO s' -> SCN s -> NB s -> step s o = Ok (s', outs) -> NB s'.
Proof.
  intros HI HI' HR HP HP' HS HN H.
  destruct o; match type of H with step _ ?o0 = _ =>
    first [ exact (NB_server s o0 s' outs I HI HI' HP HP' HN H)
          | exact (NB_worker s o0 s' outs (fun X : False => X) HI HR HP HS HN H) ] end.
Qed.

Theorem reachable_NB ops : forall reserve maxfill s outs,
  Forall op_wf ops -> ops_ok (init_sys reserve maxfill) ops = true -> run (init_sys reserve maxfill) ops = Ok (s, outs) -> NB s.
Proof.
  induction ops as [|o pre IH] using rev_ind; intros reserve maxfill s outs Hwf Hok H.
  - cbn in H. inversion H; subst. intros w p x t Hp. cbn in Hp. discriminate.
  - pose proof (proj1 (reachable_PROTO _ _ _ _ _ Hwf Hok H)) as HP'. pose proof (reachable_INV_ops _ _ _ _ _ Hwf Hok H) as HI'.
    apply Forall_app in Hwf. destruct Hwf as [Hwf1 Hwf2]. destruct (ops_ok_snoc _ _ _ Hok) as [Hok1 _].
    destruct (run_app _ _ _ _ _ H) as (s1 & o1 & o2 & H1 & H2 & ->). cbn [run] in H2. apply bind_ok in H2. destruct H2 as ([s2 o3] & Hs & H2). cbn in H2. inversion H2; subst s2 o2. clear H2.
    destruct (reachable_PROTO _ _ _ _ _ Hwf1 Hok1 H1) as [HP1 Hfr1].
    eapply step_NB; [exact (reachable_INV_ops _ _ _ _ _ Hwf1 Hok1 H1) | exact HI' | exact (proj2 (reachable_MNE_RWA _ _ _ _ _ Hwf1 Hfr1 H1)) | exact HP1 | exact HP'
                    | exact (reachable_SCN _ _ _ _ _ Hwf1 Hok1 H1) | exact (IH _ _ _ _ Hwf1 Hok1 H1) | exact Hs].
Qed.

Definition rest_state (s : sys) (x : tid) (t : task) : Prop :=
  match t_state t with
  | Waiting _ => True
  | Prefilled w => exists p, find_proc (s_procs s) w = Some p /\ bl_count x (p_backlog p) = 1%nat
  | _ => False
  end.

Theorem at_rest_states s : INV s -> PW s -> RWA (s_core s) -> MNE (s_core s) -> PROTO s -> NB s -> at_rest s ->
  forall x t, find_task (c_tasks (s_core s)) x = Some t -> rest_state s x t.
Proof.
  intros HI HPW HR HM HP HN Hrest x t Hf. pose proof (at_rest_states_PROTO s HI HPW HR HM HP Hrest x t Hf) as H.
  assert (Hbad : forall w p, find_proc (s_procs s) w = Some p -> bl_count x (p_backlog p) = O ->
            match view_of (t_state t) w (job_running (s_hq s) x) with VR _ | VM _ => False | _ => True end).
  { intros w p Hp Hb. destruct Hrest as [_ Hq]. destruct (quiet_word p x (Hq p (proj1 (find_proc_some _ _ _ Hp)))) as (EU & ED & EL).
    rewrite Hb in EL. pose proof (HN w p x t Hp Hf) as Hg. pose proof (pr_words _ HP w p x t Hp Hf) as Hl. rewrite EU, EL in Hg, Hl. rewrite ED in Hl.
    destruct (view_of (t_state t) w (job_running (s_hq s) x)) as [|vrv| | |vrv|[|]]; try exact I; cbn in Hg, Hl; discriminate. }
  unfold rest_state. destruct (t_state t) as [n|w1 rv1|w1|w1|w1 rv1|[|w0 ws]|] eqn:Est; try exact H; try contradiction.
  - destruct H as (p & Hp & Hb). specialize (Hbad w1 p Hp Hb). cbn [view_of] in Hbad. rewrite N.eqb_refl in Hbad. exact Hbad.
  - destruct H as (p & Hp & Hb). specialize (Hbad w0 p Hp Hb). cbn [view_of] in Hbad. rewrite N.eqb_refl in Hbad. exact Hbad.
Qed.

(** the honest form: every task the core knows is waiting, or prefilled on a worker whose backlog
    still holds it *)
Theorem at_rest_waiting_or_backlog ops reserve maxfill s outs :
  Forall op_wf ops -> ops_ok (init_sys reserve maxfill) ops = true -> run (init_sys reserve maxfill) ops = Ok (s, outs) ->
  at_rest s -> forall x t, find_task (c_tasks (s_core s)) x = Some t -> rest_state s x t.
Proof.
  intros Hwf Hok H. destruct (reachable_PROTO _ _ _ _ _ Hwf Hok H) as [HP Hfr]. destruct (reachable_MNE_RWA _ _ _ _ _ Hwf Hfr H) as [HM HR].
  exact (at_rest_states s (reachable_INV_ops _ _ _ _ _ Hwf Hok H) (reachable_PW _ _ _ _ _ H) HR HM HP (reachable_NB _ _ _ _ _ Hwf Hok H)).
Qed.

Theorem at_rest_all_waiting ops reserve maxfill s outs :
  Forall op_wf ops -> ops_ok (init_sys reserve maxfill) ops = true -> run (init_sys reserve maxfill) ops = Ok (s, outs) ->
  at_rest s -> (forall p, In p (s_procs s) -> p_backlog p = []) ->
  forall t, In t (c_tasks (s_core s)) -> exists n, t_state t = Waiting n.
Proof.
  intros Hwf Hok H Hrest Hbl t Hin.
  pose proof (reachable_INV_ops _ _ _ _ _ Hwf Hok H) as HI. pose proof (cb_s _ (inv_cb _ HI)) as Hcs. change (core_of (s, [])) with (s_core s) in Hcs.
  pose proof (in_find_task _ _ (CS_sorted _ Hcs) Hin) as Hf.
  pose proof (at_rest_waiting_or_backlog _ _ _ _ _ Hwf Hok H Hrest _ _ Hf) as X. unfold rest_state in X.
  destruct (t_state t) as [n|w1 rv1|w1|w1|w1 rv1|ws|]; try contradiction; [eauto|].
  destruct X as (p & Hp & Hb). rewrite (Hbl p (proj1 (find_proc_some _ _ _ Hp))) in Hb. discriminate.
Qed.

