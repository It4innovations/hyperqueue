(** The job-layer invariant (C13) lifted to the WHOLE cluster model: after every history of
    [Sys.step] operations - client requests, message deliveries in any order, scheduling rounds with
    any solver answer, worker losses, task ends - that the model processes without panicking, the
    counters of every job equal the number of its tasks per state. *)
From HQ Require Import Base.Prelude Cluster.Types Cluster.Core Cluster.Reactor Cluster.Worker Cluster.Server Cluster.Sys Cluster.Monitors Cluster.ProofsJob Cluster.ProofsMore.
From HQ Require Import Cluster.ModelFacts.
From Coq Require Import ZArith Lia.
From HQ Require Import Cluster.RejHyp Cluster.StepShape.
Local Open Scope N_scope.

Arguments N.add : simpl never.
Arguments N.sub : simpl never.

(** Invert every [bind] of a monadic computation [H : ... = Ok _]: the intermediate results are
    named [a*], the equations [E*]; [H] remains the equation of the rest. *)
Ltac step_bind H :=
  match type of H with
  | bind _ _ = Ok _ =>
      let a := fresh "a" in let E := fresh "E" in
      apply bind_ok in H; destruct H as (a & E & H); cbv beta in H
  | (let '(_, _) := ?x in _) = Ok _ => destruct x
  | context [match ?x with (_, _) => _ end] => is_var x; destruct x
  end.
Ltac inv_binds H := repeat (step_bind H).

Definition hq_same (s s' : st) : Prop := hq_of s' = hq_of s.

Lemma hq_same_ok s s' : hq_same s s' -> HOK (hq_of s) -> HOK (hq_of s').
Proof. unfold hq_same. intros ->. auto. Qed.

(** The invariant as a relation across a piece of execution (reflexive, transitive), in the form the
    walk of [StepShape] takes. *)
Definition HOKR (s s' : st) : Prop := HOK (hq_of s) -> HOK (hq_of s').

Lemma task_failed_job s w id k s' :
  task_failed s w id k = Ok s' ->
  s' = s \/ exists s0 aborted s1 ids,
    hq_of s0 = hq_of s /\ snd s0 = snd s /\ process_task_failed s0 id aborted k = Ok (s1, ids) /\
    (s' = s1 \/ on_cancel_tasks s1 ids = Ok s').
Proof.
  intros Hc. unfold task_failed in Hc.
  destruct (find_task _ id) as [t|]; [|inversion Hc; subst; left; reflexivity].
  right. inv_binds Hc.
  match goal with X : process_task_failed ?s0 _ ?ab _ = Ok (?s1, ?ids) |- _ =>
    exists s0, ab, s1, ids; split; [reflexivity|]; split; [reflexivity|]; split; [exact X|];
    destruct ids; [left; inversion Hc; reflexivity | right; exact Hc] end.
Qed.

Lemma task_failed_ok s w id k s' : HOK (hq_of s) -> task_failed s w id k = Ok s' -> HOK (hq_of s').
Proof.
  intros H Hc. destruct (task_failed_job _ _ _ _ _ Hc) as [->|(s0 & ab & s1 & ids & Q & _ & Hf & Hs')]; [exact H|].
  assert (H1 : HOK (hq_of s1)) by (eapply process_task_failed_ok; [|exact Hf]; rewrite Q; exact H).
  destruct Hs' as [->|Hs']; [exact H1 | rewrite (on_cancel_tasks_hq _ _ _ Hs'); exact H1].
Qed.

Lemma task_finished_job s w id s' b :
  task_finished s w id = Ok (s', b) ->
  s' = s \/ exists s0 s1 c3 ret s2 c4,
    hq_of s0 = hq_of s /\ snd s0 = snd s /\ process_task_finished s0 id = Ok s1 /\
    process_retracted (st_core s1 c3) ret = Ok s2 /\ s' = st_core s2 c4.
Proof.
  intros Hc. unfold task_finished in Hc.
  destruct (find_task _ id) as [t|]; [|inversion Hc; subst; left; reflexivity].
  right. inv_binds Hc.
  match type of Hc with match ?st with _ => _ end = _ => destruct st; try discriminate end. inversion Hc; subst.
  match goal with X : process_task_finished ?s0 _ = Ok ?s1, Y : process_retracted (st_core ?s1 ?c3) ?ret = Ok ?s2 |- _ =>
    exists s0, s1, c3, ret, s2; eexists; repeat split; [exact X | exact Y] end.
Qed.

Lemma task_finished_ok s w id s' b : HOK (hq_of s) -> task_finished s w id = Ok (s', b) -> HOK (hq_of s').
Proof.
  intros H Hc. destruct (task_finished_job _ _ _ _ _ Hc) as [->|(s0 & s1 & c3 & ret & s2 & c4 & Q & _ & Hf & Hr & ->)]; [exact H|].
  change (HOK (hq_of s2)). rewrite (process_retracted_hq _ _ _ Hr). change (HOK (hq_of s1)).
  eapply process_task_finished_ok; [|exact Hf]. rewrite Q. exact H.
Qed.

Lemma task_running_started s w id rv s' b :
  task_running s w id rv = Ok (s', b) ->
  s' = s \/ exists s1 inst ws, hq_of s1 = hq_of s /\ snd s1 = snd s /\ process_task_started s1 id inst ws rv = Ok s'.
Proof.
  intros Hc. unfold task_running in Hc.
  destruct (find_task _ id) as [t|]; [|inversion Hc; subst; left; reflexivity].
  right. inv_binds Hc. inversion Hc; subst.
  match goal with X : process_task_started ?s1 _ ?i ?ws _ = Ok _ |- _ =>
    exists s1, i, ws; cut (hq_of s1 = hq_of s /\ snd s1 = snd s); [intros [A B]; auto|] end.
  match goal with X : match t_state t with _ => _ end = Ok _ |- _ => rename X into Hm end.
  destruct (t_state t); try discriminate.
  - destruct (negb (N.eqb w0 w)); [discriminate|]. destruct (negb (N.eqb rv0 rv)); [discriminate|]. inversion Hm; subst. split; reflexivity.
  - destruct (negb (N.eqb w0 w)); [discriminate|]. inv_binds Hm. inversion Hm; subst. split; reflexivity.
  - destruct (negb (N.eqb w0 w)); [discriminate|]. inv_binds Hm. inversion Hm; subst. split; reflexivity.
  - destruct ws; [discriminate|]. destruct (N.eqb w0 w); [|discriminate]. inversion Hm; subst. split; reflexivity.
Qed.

Lemma task_running_ok s w id rv s' b : HOK (hq_of s) -> task_running s w id rv = Ok (s', b) -> HOK (hq_of s').
Proof.
  intros H Hc. destruct (task_running_started _ _ _ _ _ _ Hc) as [->|(s1 & i & ws & Q & _ & Hs)]; [exact H|].
  eapply process_task_started_ok; [|exact Hs]. rewrite Q. exact H.
Qed.

Lemma requeue_same s t c1 s' b :
  (do (qs, ret) <- add_ready_task (c_queues c1) (with_state t (Waiting 0));
   do s'' <- process_retracted (st_core s (with_queues (upd_task c1 (with_state t (Waiting 0))) qs)) ret;
   Ok (s'', true)) = Ok (s', b) -> hq_same s s'.
Proof.
  intros Hx. inv_binds Hx. inversion Hx; subst.
  match goal with X : process_retracted _ _ = Ok _ |- _ => apply process_retracted_hq in X; unfold hq_same; rewrite X end.
  reflexivity.
Qed.

Lemma task_reject_same s w id rv s' b : task_reject s w id rv = Ok (s', b) -> hq_same s s'.
Proof.
  intros Hc. unfold task_reject in Hc.
  destruct (find_task _ id) as [t|]; [|inversion Hc; subst; reflexivity].
  inv_binds Hc.
  destruct (t_state t) eqn:Est; try (eapply requeue_same; exact Hc).
  match type of Hc with (match ?cont with true => _ | false => _ end) = _ => destruct cont end.
  - match type of Hc with (match ?x with Some _ => _ | None => _ end) = _ => destruct x as [[target rvt]|] end.
    + inv_binds Hc. inversion Hc; subst.
      match goal with X : send_worker _ _ _ = Ok _ |- _ => apply send_worker_hq in X; unfold hq_same; rewrite X end. reflexivity.
    + eapply requeue_same; exact Hc.
  - inversion Hc; subst. reflexivity.
Qed.

Lemma request_enabled_same s w rq rv s' : request_enabled s w rq rv = Ok s' -> hq_same s s'.
Proof. unfold request_enabled. intros H. inv_binds H. inversion H; subst. reflexivity. Qed.

Lemma apply_one_ok s w u s' n : apply_one s w u = Ok (s', n) -> HOKR s s'.
Proof.
  apply (apply_one_walk HOKR).
  - intros x w0 id x' b X H. exact (task_finished_ok _ _ _ _ _ H X).
  - intros x w0 id k x' X H. exact (task_failed_ok _ _ _ _ _ H X).
  - intros x w0 id rv x' b X H. exact (task_running_ok _ _ _ _ _ _ H X).
  - intros x w0 id rv x' b X. exact (hq_same_ok _ _ (task_reject_same _ _ _ _ _ _ X)).
  - intros x w0 rq rv x' X. exact (hq_same_ok _ _ (request_enabled_same _ _ _ _ _ X)).
Qed.

Lemma apply_updates_ok us : forall s w need s' need',
  HOK (hq_of s) -> apply_updates s w us need = Ok (s', need') -> HOK (hq_of s').
Proof.
  intros s w need s' need' H Hc.
  exact (apply_updates_rel HOKR (fun _ X => X) (fun _ _ _ A B X => B (A X)) apply_one_ok us s w need s' need' Hc H).
Qed.

Lemma on_task_update_ok s w us s' : HOK (hq_of s) -> on_task_update s w us = Ok s' -> HOK (hq_of s').
Proof.
  intros H Hc.
  exact (on_task_update_rel HOKR (fun _ X => X) (fun _ _ _ A B X => B (A X)) apply_one_ok s w us s' (fun _ X => X) Hc H).
Qed.

Lemma send_redirected_same gs : forall s s', send_redirected s gs = Ok s' -> hq_same s s'.
Proof.
  induction gs as [|[target ts] r IH]; cbn [send_redirected]; intros s s' H; [inversion H; reflexivity|].
  inv_binds H. unfold hq_same. rewrite (IH _ _ H).
  match goal with X : send_worker _ _ _ = Ok _ |- _ => apply send_worker_hq in X; exact X end.
Qed.

Lemma on_retract_response_same s w ids s' : on_retract_response s w ids = Ok s' -> hq_same s s'.
Proof.
  unfold on_retract_response. destruct (retract_response_states _ w ids []) as [c' groups].
  intros H. apply bind_ok in H. destruct H as (s2 & H & H2).
  destruct (retract_wakes _ _ _ _); inversion H2; subst s'; clear H2; apply send_redirected_same in H; exact H.
Qed.

Lemma lost_retracting_same l : forall s w s', lost_retracting s w l = Ok s' -> hq_same s s'.
Proof.
  induction l as [|id r IH]; cbn [lost_retracting]; intros s w s' H; [inversion H; reflexivity|].
  apply bind_ok in H. destruct H as (t & _ & H).
  destruct (t_state t); try (eapply IH; exact H).
  destruct (N.eqb w w0); [|eapply IH; exact H].
  destruct (find_redirect _ id) as [[target rv]|].
  - inv_binds H. unfold hq_same. rewrite (IH _ _ _ H).
    match goal with X : send_worker _ _ _ = Ok _ |- _ => apply send_worker_hq in X; exact X end.
  - apply IH in H. exact H.
Qed.

Lemma lost_fail_running_ok l : forall s reason s', HOK (hq_of s) -> lost_fail_running s reason l = Ok s' -> HOK (hq_of s').
Proof.
  intros s reason s' H Hc. revert H.
  refine (lost_fail_running_rel HOKR (fun _ X => X) (fun _ _ _ A B X => B (A X)) (fun _ _ _ _ X => X) _ l s reason s' Hc).
  intros s0 id k s1 _ Hf X. exact (task_failed_ok _ _ _ _ _ X Hf).
Qed.

Lemma on_remove_worker_ok s w reason a p t s' :
  HOK (hq_of s) -> on_remove_worker s w reason a p t = Ok s' -> HOK (hq_of s').
Proof.
  intros H Hc. revert H.
  refine (on_remove_worker_rel HOKR (fun _ _ _ A B X => B (A X)) (fun _ _ _ _ _ _ _ _ _ _ X => X) _ _ (fun _ _ X => X) _ _ (fun _ X => X)
            s w reason a p t s' Hc).
  - intros l s0 w0 s1 X. exact (hq_same_ok _ _ (lost_retracting_same _ _ _ _ X)).
  - intros s0 r s1 X H. rewrite (process_retracted_hq _ _ _ X). exact H.
  - intros s0 w0 running r s1 X H. exact (process_worker_lost_ok _ _ _ _ _ H X).
  - intros l s0 r s1 X H. exact (lost_fail_running_ok _ _ _ _ H X).
Qed.

Lemma send_mapping_same m : forall s s', send_mapping s m = Ok s' -> hq_same s s'.
Proof.
  induction m as [|u r IH]; cbn [send_mapping]; intros s s' H; [inversion H; reflexivity|].
  apply bind_ok in H. destruct H as (s1 & H1 & H).
  apply bind_ok in H. destruct H as (cts1 & _ & H).
  apply bind_ok in H. destruct H as (cts2 & _ & H).
  apply bind_ok in H. destruct H as (s2 & H2 & H).
  unfold hq_same. rewrite (IH _ _ H).
  assert (E2 : hq_of s2 = hq_of s1) by (destruct (cts1 ++ cts2); [inversion H2; reflexivity | eapply send_worker_hq; exact H2]).
  assert (E1 : hq_of s1 = hq_of s) by (destruct (wu_retracts u); [inversion H1; reflexivity | eapply send_worker_hq; exact H1]).
  congruence.
Qed.

Lemma send_mn_same l : forall s s', send_mn s l = Ok s' -> hq_same s s'.
Proof.
  induction l as [|id r IH]; cbn [send_mn]; intros s s' H; [inversion H; reflexivity|].
  apply bind_ok in H. destruct H as (t & _ & H).
  destruct (t_state t); try discriminate. destruct ws; [discriminate|].
  apply bind_ok in H. destruct H as (s1 & H1 & H).
  unfold hq_same. rewrite (IH _ _ H). eapply send_worker_hq; exact H1.
Qed.

Lemma run_scheduling_same s sol s' : run_scheduling s sol = Ok s' -> hq_same s s'.
Proof.
  unfold run_scheduling. destruct (negb (perm_of_set _ _)); [discriminate|].
  intros H. inv_binds H. inversion H; subst.
  match goal with X : send_mapping _ _ = Ok _ |- _ => apply send_mapping_same in X; rename X into R1 end.
  match goal with X : send_mn _ _ = Ok _ |- _ => apply send_mn_same in X; rename X into R2 end.
  unfold hq_same, hq_of in *. cbn in *. congruence.
Qed.

Lemma on_new_worker_same s rs g s' : on_new_worker s rs g = Ok s' -> hq_same s s'.
Proof. unfold on_new_worker. intros H. inversion H; subst. reflexivity. Qed.

Lemma get_or_create_rq_same s r : hq_same s (fst (get_or_create_rq s r)).
Proof. unfold get_or_create_rq. destruct (rq_index _ r 0); reflexivity. Qed.

Lemma attach_ids_ok ids : forall j j', JOK j -> j_completed j = false -> attach_ids j ids = Ok j' ->
  JOK j' /\ j_completed j' = false /\ j_id j' = j_id j.
Proof.
  induction ids as [|i r IH]; cbn [attach_ids]; intros j j' Hj Hc H; [inversion H; subst; auto|].
  destruct (jt_find (j_tasks j) i) eqn:Ef; [discriminate|].
  assert (Hj1 : JOK (job_set_task j i JW)).
  { destruct Hj as [Ss R F X C A Cm].
    pose proof (fun v => cnt_set_none _ _ JW v Ef) as HC.
    constructor; cbn; auto using jt_set_sorted;
      try (match goal with |- _ = cnt _ ?v => specialize (HC v); cbn [jst_eqb] in HC; lia end).
    rewrite Hc. discriminate. }
  destruct (IH _ _ Hj1 Hc H) as (A1 & A2 & A3). auto.
Qed.

Lemma submit_ok_resp_same s jid s' : submit_ok_resp s jid = Ok s' -> hq_same s s'.
Proof. unfold submit_ok_resp. intros H. inv_binds H. inversion H; subst. reflexivity. Qed.

Lemma JOK_new_job jid open mf : JOK (mkJob jid open [] 0 0 0 0 0 false mf).
Proof. constructor; cbn; auto. discriminate. Qed.

Lemma open_not_completed j : JOK j -> j_open j = true -> j_completed j = false.
Proof.
  intros H Ho. destruct (j_completed j) eqn:E; [|reflexivity].
  destruct (jok_completed _ H E) as (Hf & _). congruence.
Qed.

(** Both submit handlers either answer with an error and change nothing else, or: pick the job (a new one
    under the counter's id, or an existing open one), announce the submit and create the job
    ([submit_job]), register the resource requests, and run the common tail [submit_tail]: the job
    receives the ids, the core the tasks, the client the response. *)
Definition submit_target (s : st) (jid : N) (is_new : bool) : Prop :=
  if is_new then jid = hq_counter s else exists j, find_job (hq_jobs s) jid = Some j /\ j_open j = true.

Definition submit_job (s : st) (jid : N) (is_new : bool) (n : N) (mf : option N) : st :=
  let s1 := if is_new then hq_with s (hq_jobs s) (jid + 1) else s in
  let s2 := emit s1 (OEv (EvSubmit jid is_new n)) in
  if is_new then hq_with s2 (set_job (hq_jobs s2) (mkJob jid false [] 0 0 0 0 0 false mf)) (hq_counter s2) else s2.

Definition submit_tail (s4 : st) (jid : N) (ids : list N) (tasks : list task) : res st :=
  do j <- hq_get_job s4 jid 222;
  do j' <- attach_ids j ids;
  do s6 <- on_new_tasks (hq_set_job s4 j') tasks;
  submit_ok_resp s6 jid.

Lemma handle_submit_array_spec s jobsel ids entries rq prio cl tlim mf s' :
  handle_submit_array s jobsel ids entries rq prio cl tlim mf = Ok s' ->
  (exists c a, s' = emit s (OResp (RSubmitErr c a))) \/
  exists jid is_new ids' s4 rqi,
    submit_target s jid is_new /\
    (ids' = ids \/ ids = [] /\ match entries with Some n => length ids' = N.to_nat n | None => True end) /\
    get_or_create_rq (submit_job s jid is_new (N.of_nat (length ids')) mf) rq = (s4, rqi) /\
    submit_tail s4 jid ids' (map (fun i => fresh_task (jid, i) [] rqi prio cl tlim)
                                 (match entries with Some n => fst (take_n (N.to_nat n) ids') | None => ids' end)) = Ok s'.
Proof.
  intros H. unfold handle_submit_array in H.
  match type of H with (match ?x with Some _ => _ | None => _ end) = _ => destruct x end; [left; inversion H; eauto|].
  apply bind_ok in H. destruct H as ([acc s1] & Hr & H).
  destruct acc as [[[jid is_new] ids']|].
  - right. cbv zeta in H.
    assert (Hs1 : submit_target s jid is_new /\ (s1 = if is_new then hq_with s (hq_jobs s) (jid + 1) else s) /\
                  (ids' = ids \/ ids = [] /\ match entries with Some n => length ids' = N.to_nat n | None => True end)).
    { assert (Hauto : forall start, let l := match ids with
                                            | [] => match entries with Some n => range_from start (N.to_nat n) | None => [start] end
                                            | _ => ids
                                            end in
                        l = ids \/ ids = [] /\ match entries with Some n => length l = N.to_nat n | None => True end).
      { intros start. destruct ids; [right | left; reflexivity]. split; [reflexivity|].
        destruct entries; [apply range_from_length | exact I]. }
      destruct jobsel as [j0|].
      - destruct (find_job (hq_jobs s) j0) as [j|] eqn:Ef; [|inversion Hr].
        destruct (negb (j_open j)) eqn:Eo; [inversion Hr|]. inversion Hr; subst. split; [|split; [reflexivity | apply Hauto]].
        exists j. split; [exact Ef | apply negb_false_iff; exact Eo].
      - inversion Hr; subst. split; [reflexivity | split; [reflexivity | apply Hauto]]. }
    destruct Hs1 as (Ht & -> & Hids).
    match type of H with context [get_or_create_rq ?s3 rq] => destruct (get_or_create_rq s3 rq) as [s4 rqi] eqn:Erq end.
    exists jid, is_new, ids', s4, rqi. split; [exact Ht|]. split; [exact Hids|]. split; [exact Erq | exact H].
  - left. destruct jobsel as [j0|]; [|inversion Hr].
    destruct (find_job (hq_jobs s) j0) as [j|]; [|inversion Hr; subst; inversion H; eauto].
    destruct (negb (j_open j)); inversion Hr; subst. inversion H; eauto.
Qed.

Lemma handle_submit_graph_spec s jobsel rqs ts mf s' :
  handle_submit_graph s jobsel rqs ts mf = Ok s' ->
  (exists r, s' = emit s (OResp r)) \/
  exists jid is_new s4 rqis tasks,
    submit_target s jid is_new /\
    fold_left (fun acc r => let '(s, l) := acc in let '(s', i) := get_or_create_rq s r in (s', l ++ [i])) rqs
              (submit_job s jid is_new (N.of_nat (length ts)) mf, []) = (s4, rqis) /\
    graph_tasks jid rqis ts = Ok tasks /\
    submit_tail s4 jid (map gt_id ts) tasks = Ok s'.
Proof.
  intros H. unfold handle_submit_graph in H.
  apply bind_ok in H. destruct H as (v1 & _ & H).
  match type of H with (match ?x with Some _ => _ | None => _ end) = _ => destruct x end; [left; inversion H; eauto|].
  apply bind_ok in H. destruct H as ([acc s1] & Hr & H).
  destruct acc as [[jid is_new]|].
  - right. cbv zeta in H.
    assert (Hs1 : submit_target s jid is_new /\ s1 = if is_new then hq_with s (hq_jobs s) (jid + 1) else s).
    { destruct jobsel as [j0|].
      - destruct (find_job (hq_jobs s) j0) as [j|] eqn:Ef; [|inversion Hr].
        destruct (negb (j_open j)) eqn:Eo; [inversion Hr|]. inversion Hr; subst. split; [|reflexivity].
        exists j. split; [exact Ef | apply negb_false_iff; exact Eo].
      - inversion Hr; subst. split; reflexivity. }
    destruct Hs1 as [Ht ->].
    match type of H with context [fold_left ?f rqs (?s3, [])] => destruct (fold_left f rqs (s3, [])) as [s4 rqis] eqn:Erq end.
    apply bind_ok in H. destruct H as (j & Hj & H). apply bind_ok in H. destruct H as (j' & Ha & H).
    apply bind_ok in H. destruct H as (tasks & Hg & H).
    exists jid, is_new, s4, rqis, tasks. split; [exact Ht|]. split; [exact Erq|]. split; [exact Hg|].
    unfold submit_tail. rewrite Hj. cbn [bind]. rewrite Ha. exact H.
  - left. destruct jobsel as [j0|]; [|inversion Hr].
    destruct (find_job (hq_jobs s) j0) as [j|]; [|inversion Hr; subst; inversion H; eauto].
    destruct (negb (j_open j)); inversion Hr; subst; inversion H; eauto.
Qed.

Lemma get_or_create_rq_keeps s r s4 rqi :
  get_or_create_rq s r = (s4, rqi) -> hq_of s4 = hq_of s.
Proof. intros E. pose proof (get_or_create_rq_same s r) as H. rewrite E in H. exact H. Qed.

Lemma fold_rqs_same rqs : forall s l s4 rqis,
  fold_left (fun acc r => let '(s, l) := acc in let '(s', i) := get_or_create_rq s r in (s', l ++ [i])) rqs (s, l) = (s4, rqis) ->
  hq_of s4 = hq_of s.
Proof.
  induction rqs as [|r rest IH]; cbn [fold_left]; intros s l s4 rqis H; [inversion H; reflexivity|].
  destruct (get_or_create_rq s r) as [s1 i] eqn:E. rewrite (IH _ _ _ _ H). eapply get_or_create_rq_keeps; exact E.
Qed.

Lemma submit_job_ok s jid is_new n mf :
  HOK (hq_of s) -> submit_target s jid is_new ->
  HOK (hq_of (submit_job s jid is_new n mf))
  /\ forall j, find_job (hq_jobs (submit_job s jid is_new n mf)) jid = Some j -> j_completed j = false.
Proof.
  intros H Ht. unfold submit_job. destruct is_new.
  - split.
    + intros x Hx. unfold hq_of, hq_with in Hx. cbn in Hx. apply set_job_in in Hx.
      destruct Hx as [->|Hx]; [apply JOK_new_job | apply H; exact Hx].
    + intros j Hj. unfold hq_jobs, hq_with in Hj. cbn in Hj. rewrite find_job_set in Hj. cbn in Hj.
      rewrite N.eqb_refl in Hj. inversion Hj; subst. reflexivity.
  - split; [exact H|]. intros j Hj. destruct Ht as (j0 & Hf & Ho).
    unfold hq_jobs in *. cbn in Hj. rewrite Hf in Hj. inversion Hj; subst.
    apply open_not_completed; [apply H; eapply find_job_in; exact Hf | exact Ho].
Qed.

Lemma submit_tail_ok s4 jid ids tasks s' :
  HOK (hq_of s4) ->
  (forall j, find_job (hq_jobs s4) jid = Some j -> j_completed j = false) ->
  submit_tail s4 jid ids tasks = Ok s' ->
  HOK (hq_of s').
Proof.
  intros H Hnc Hc. unfold submit_tail in Hc. inv_binds Hc.
  match goal with X : hq_get_job s4 jid 222 = Ok ?j |- _ =>
    pose proof (hq_get_job_ok _ _ _ _ H X) as Hj;
    assert (Hcj : j_completed j = false) by (apply Hnc; unfold hq_get_job in X; unfold hq_jobs; destruct (find_job _ jid); inversion X; reflexivity) end.
  match goal with X : attach_ids _ _ = Ok ?j' |- _ => destruct (attach_ids_ok _ _ _ Hj Hcj X) as (Hj' & _ & _) end.
  match goal with X : on_new_tasks _ _ = Ok _ |- _ => apply on_new_tasks_hq in X; rename X into R1 end.
  apply submit_ok_resp_same in Hc. unfold hq_same in Hc. rewrite Hc, R1.
  apply hq_set_job_ok; assumption.
Qed.

Lemma handle_submit_array_ok s jobsel ids entries rq prio cl tlim mf s' :
  HOK (hq_of s) -> handle_submit_array s jobsel ids entries rq prio cl tlim mf = Ok s' -> HOK (hq_of s').
Proof.
  intros H Hc. destruct (handle_submit_array_spec _ _ _ _ _ _ _ _ _ _ Hc) as [(c & a & ->)|(jid & is_new & ids' & s4 & rqi & Ht & _ & Erq & Hc')];
    [exact H|].
  destruct (submit_job_ok s jid is_new (N.of_nat (length ids')) mf H Ht) as [H3 Hnc3].
  pose proof (get_or_create_rq_keeps _ _ _ _ Erq) as E4.
  eapply submit_tail_ok; [rewrite E4; exact H3 | | exact Hc'].
  intros j Hj. apply Hnc3. unfold hq_jobs, hq_of in *. rewrite <- E4. exact Hj.
Qed.

Lemma handle_submit_graph_ok s jobsel rqs ts mf s' :
  HOK (hq_of s) -> handle_submit_graph s jobsel rqs ts mf = Ok s' -> HOK (hq_of s').
Proof.
  intros H Hc. destruct (handle_submit_graph_spec _ _ _ _ _ _ Hc) as [(r & ->)|(jid & is_new & s4 & rqis & tasks & Ht & Erq & _ & Hc')];
    [exact H|].
  destruct (submit_job_ok s jid is_new (N.of_nat (length ts)) mf H Ht) as [H3 Hnc3].
  pose proof (fold_rqs_same _ _ _ _ _ Erq) as E4.
  eapply submit_tail_ok; [rewrite E4; exact H3 | | exact Hc'].
  intros j Hj. apply Hnc3. unfold hq_jobs, hq_of in *. rewrite <- E4. exact Hj.
Qed.

Theorem step_hq_ok s o s' outs : HOK (s_hq s) -> step s o = Ok (s', outs) -> HOK (s_hq s').
Proof.
  intros H Hc. revert H.
  refine (step_walk HOKR (fun _ => True) _ _ _ _ _ _ _ _ _ _ _ _ _ _ _ _ s o s' outs I Hc); unfold HOKR; try (intros; assumption).
  - intros s0 rs g s1 _ X. exact (hq_same_ok _ _ (on_new_worker_same _ _ _ _ X)).
  - intros s0 w r a p t pw s1 _ _ X H. exact (on_remove_worker_ok _ _ _ _ _ _ _ H X).
  - intros s0 job ids entries rq prio cl tlim mf s1 _ X H. exact (handle_submit_array_ok _ _ _ _ _ _ _ _ _ _ H X).
  - intros s0 job rqs ts mf s1 _ X H. exact (handle_submit_graph_ok _ _ _ _ _ _ H X).
  - intros s0 mf s1 _ X H. exact (handle_open_ok _ _ _ H X).
  - intros s0 j s1 _ X H. exact (handle_close_ok _ _ _ H X).
  - intros s0 j s1 _ X H. exact (handle_cancel_ok _ _ _ H X).
  - intros s0 j s1 _ X H. exact (handle_forget_ok _ _ _ H X).
  - intros s0 w p m rest s1 _ _ _ X H.
    destruct m; [eapply on_task_update_ok; [|exact X] | eapply hq_same_ok; [eapply on_retract_response_same; exact X|]]; exact H.
  - intros s0 sol s1 _ _ X. exact (hq_same_ok _ _ (run_scheduling_same _ _ _ X)).
Qed.

(** Main theorem (C13 for the whole system model): after ANY history of operations - client
    requests, deliveries in any order, scheduling rounds with any solver answer, worker losses,
    task ends, timers - the job layer's counters are exact. *)
Theorem run_hq_ok ops : forall s s' outs, HOK (s_hq s) -> run s ops = Ok (s', outs) -> HOK (s_hq s').
Proof.
  induction ops as [|o r IH]; cbn [run]; intros s s' outs H Hc; [inversion Hc; subst; exact H|].
  apply bind_ok in Hc. destruct Hc as ([s1 o1] & H1 & Hc).
  apply bind_ok in Hc. destruct Hc as ([s2 o2] & H2 & Hc). inversion Hc; subst.
  eapply IH; [|exact H2]. eapply step_hq_ok; eassumption.
Qed.

Theorem system_counters_exact ops reserve maxfill s outs :
  run (init_sys reserve maxfill) ops = Ok (s, outs) -> hq_ok s = true.
Proof.
  intros H. apply HOK_hq_ok. eapply run_hq_ok; [|exact H]. intros j [].
Qed.
