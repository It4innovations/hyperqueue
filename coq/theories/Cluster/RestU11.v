(** C02 "at rest": the invariant "no silent end" ([NB]) is kept by every operation of the server.

    [NB s]: for every connected worker process [p] and every task [x] of the core, the word of [x]
    at [p] is not "silently ended" ([badw]): nothing is running or queued at the worker, and either
    the server believes the task is running there with no report under way, or the only report
    under way is the running message.

    Ingredients: a task named in a finished / failed update is gone from the core when the whole
    message has been processed ([gone]); what one operation of the server does to the channels of
    a worker process ([sfr]); where a running root comes from ([RestU4.RO]). *)
From HQ Require Import Base.Prelude Cluster.Types Cluster.Core Cluster.Reactor Cluster.ProofsJob Cluster.ProofsStep Cluster.BijBase Cluster.BijCore Cluster.BijHq Cluster.BijSt Cluster.BijReact Cluster.ExecU2 Cluster.ExecU3 Cluster.NoPanicU0 Cluster.NoPanicU1 Cluster.RestU4 Cluster.Worker Cluster.Sys Cluster.InvBundle Cluster.NoPanicU11 Cluster.NoPanicU12 Cluster.ExecU5 Cluster.ExecU6 Cluster.ExecU9 Cluster.RestU3 Cluster.ProofsFinal Cluster.InvWBase Cluster.ExecU13.
From HQ Require Import Cluster.ReactSplit.
From HQ Require Import Cluster.StepShape.
From HQ Require Import Cluster.ModelFacts.
From Coq Require Import ZArith.
Local Open Scope N_scope.

Arguments N.add : simpl never.
Arguments N.sub : simpl never.

Definition gone (c : core) (x : tid) : Prop := ~ In x (map t_id (c_tasks c)).
Definition TTs := TT (fun _ => True) (fun _ => False).

Lemma TT_gone c c' x : TTs c c' -> gone c x -> gone c' x.
Proof.
  intros H Hg Hin. apply in_map_iff in Hin. destruct Hin as (t' & Ei & Hin).
  destruct (H t' Hin) as [(t & Ht & Eid & _)|[]]. apply Hg. rewrite <- Ei, <- Eid. apply in_map. exact Ht.
Qed.

Lemma gone_present c x : gone c x <-> ~ present (keys c) x.
Proof. unfold gone. rewrite present_ids. reflexivity. Qed.

Lemma task_finished_gone s w id s' b : CB s -> task_finished s w id = Ok (s', b) -> gone (core_of s') id.
Proof.
  intros HC H. unfold task_finished in H.
  destruct (find_task (c_tasks (core_of s)) id) as [t|] eqn:Ef; [|inversion H; subst; exact (proj1 (find_task_none _ _) Ef)].
  apply bind_ok in H. destruct H as (rq & _ & H). apply bind_ok in H. destruct H as (c1 & H1 & H).
  pose proof (released_tasks _ _ _ _ _ (finished_release _ _ _ _ _ _ H1)) as Et.
  assert (Ek : keys c1 = K s) by (unfold K, keys; rewrite Et; reflexivity).
  assert (Hs1 : CS c1) by (eapply CS_keys; [exact Ek | exact (cb_s _ HC)]).
  cbv zeta in H.
  assert (E2 : keys (upd_task c1 (with_state t Finished)) = K s).
  { rewrite <- Ek. apply (upd_task_frame c1 id t); [exact Hs1 | rewrite Et; exact Ef | reflexivity | reflexivity]. }
  apply bind_ok in H. destruct H as (s1 & Hf & H).
  destruct (process_task_finished_active _ _ _ Hf) as [C1 A1].
  apply bind_ok in H. destruct H as ([c3 retracted] & Hw & H).
  apply bind_ok in H. destruct H as (s2 & Hr & H).
  apply bind_ok in H. destruct H as ([c4 stt] & Hrm & H).
  destruct stt; try discriminate. inversion H; subst.
  assert (Ks1 : K s1 = K s) by (unfold K; rewrite C1; exact E2).
  assert (Hss1 : CS (core_of s1)) by (eapply CS_keys; [exact Ks1 | exact (cb_s _ HC)]).
  pose proof (wake_consumers_frame _ _ _ _ _ Hss1 Hw) as E3.
  assert (Ks2 : K s2 = K s).
  { rewrite (process_retracted_K (st_core s1 c3) _ _ (CS_keys _ _ E3 Hss1) Hr). unfold K in *. change (keys c3 = keys (core_of s)). rewrite E3. exact Ks1. }
  assert (Hss2 : CS (core_of s2)) by (eapply CS_keys; [exact Ks2 | exact (cb_s _ HC)]).
  destruct (remove_task_shrinks _ _ _ _ Hss2 Hrm) as [Sh _].
  apply gone_present. change (~ present (keys c4) id). rewrite (shr_dom _ _ _ Sh). intros [_ N]. apply N. left. reflexivity.
Qed.

Lemma task_failed_gone s w id k s' : HOK (hq_of s) -> CB s -> task_failed s w id k = Ok s' -> gone (core_of s') id.
Proof.
  intros Hok HC H. unfold task_failed in H.
  destruct (find_task (c_tasks (core_of s)) id) as [t|] eqn:Ef; [|inversion H; subst; exact (proj1 (find_task_none _ _) Ef)].
  destruct (find_task_some _ _ _ Ef) as [Hin Hid]. apply tid_eqb_eq in Hid.
  apply bind_ok in H. destruct H as (rq & _ & H). apply bind_ok in H. destruct H as (c1 & H1 & H).
  assert (Et : c_tasks c1 = c_tasks (core_of s))
    by (destruct (failed_release _ _ _ _ _ _ H1) as [Hrel | (-> & _)]; [exact (released_tasks _ _ _ _ _ Hrel) | reflexivity]).
  assert (Ek : keys c1 = K s) by (unfold K, keys; rewrite Et; reflexivity).
  assert (Hs1 : CS c1) by (eapply CS_keys; [exact Ek | exact (cb_s _ HC)]).
  apply bind_ok in H. destruct H as (csm & Hcs & H).
  apply bind_ok in H. destruct H as (c2 & H2 & H).
  destruct (remove_waiting_consumers_shrinks _ _ _ Hs1 H2) as [Sh2 _].
  apply bind_ok in H. destruct H as ([c3 stt] & H3 & H).
  destruct (remove_task_shrinks _ _ _ _ (shr_sorted _ _ _ Sh2) H3) as [Sh3 _].
  apply bind_ok in H. destruct H as (u & _ & H).
  apply bind_ok in H. destruct H as ([s1 cancel_ids] & H4 & H).
  destruct (process_task_failed_active (st_core s c3) id csm k s1 cancel_ids Hok H4) as (C4 & A4 & J4 & N4).
  assert (G3 : gone (core_of s1) id).
  { unfold core_same in C4. rewrite C4. apply gone_present. change (~ present (keys c3) id). rewrite (shr_dom _ _ _ Sh3). intros [_ N]. apply N. left. reflexivity. }
  destruct cancel_ids as [|c0 cr] eqn:Ecid.
  - inversion H; subst. exact G3.
  - eapply TT_gone; [|exact G3]. unfold TTs. eapply on_cancel_tasks_TT; exact H.
Qed.

Definition ends (x : tid) (us : list wupdate) : Prop := In (UFinished x) us \/ exists k, In (UFailed x k) us.

Lemma apply_updates_gone us : forall s w need s' need',
  HOK (hq_of s) -> CB s -> apply_updates s w us need = Ok (s', need') -> forall x, ends x us -> gone (core_of s') x.
Proof.
  induction us as [|u r IH]; cbn [apply_updates]; intros s w need s' need' Hok HC H x Hx; [destruct Hx as [[]|(k & [])]|].
  apply bind_ok in H. destruct H as ([s1 n1] & Hu & H).
  (* the first update alone, as a run of [apply_updates] *)
  assert (H1 : apply_updates s w [u] need = Ok (s1, need || n1)) by (cbn [apply_updates]; rewrite Hu; reflexivity).
  pose proof (apply_updates_ok _ _ _ _ _ _ Hok H1) as Hok1. pose proof (apply_updates_CB _ _ _ _ _ _ Hok HC H1) as HC1.
  assert (Hrest : TTs (core_of s1) (core_of s')) by (unfold TTs; eapply (apply_updates_TT (fun _ => True) (fun _ => False) r); [intros ? ? ?; exact I | exact H]).
  destruct Hx as [[E|Hx]|(k & [E|Hx])].
  - subst u. eapply TT_gone; [exact Hrest|]. exact (task_finished_gone _ _ _ _ _ HC Hu).
  - eapply IH; [exact Hok1 | exact HC1 | exact H | left; exact Hx].
  - subst u. apply bind_ok in Hu. destruct Hu as (sx & Hf & Hu). inversion Hu; subst.
    eapply TT_gone; [exact Hrest|]. exact (task_failed_gone _ _ _ _ _ Hok HC Hf).
  - eapply IH; [exact Hok1 | exact HC1 | exact H | right; exists k; exact Hx].
Qed.

Lemma on_task_update_gone s w us s' :
  HOK (hq_of s) -> CB s -> on_task_update s w us = Ok s' -> forall x, ends x us -> gone (core_of s') x.
Proof.
  intros Hok HC H x Hx. unfold on_task_update in H. apply bind_ok in H. destruct H as ([s1 need] & Hu & H).
  pose proof (apply_updates_gone _ _ _ _ _ _ Hok HC Hu x Hx) as G.
  destruct (need && _); inversion H; subst; exact G.
Qed.

Definition badw (v : view) (U : list uitem) (L : litem) : bool :=
  is_lnone L &&
  match U with
  | [] => match v with VR _ | VM true => true | _ => false end
  | [IRun _ _] => true
  | _ => false
  end.

Definition NB (s : sys) : Prop :=
  forall w p x t, find_proc (s_procs s) w = Some p -> find_task (c_tasks (s_core s)) x = Some t ->
    badw (view_of (t_state t) w (job_running (s_hq s) x)) (uitems x (p_up p)) (local p x) = false.

Definition noend (U : list uitem) : bool := forallb (fun it => match it with IFin | IFail _ => false | _ => true end) U.
Definition noirun (U : list uitem) : bool := forallb (fun it => match it with IRun _ _ => false | _ => true end) U.

Ltac crunch H :=
  cbn in H;
  repeat first [ discriminate
               | rewrite andb_false_r in H | rewrite orb_false_r in H | rewrite andb_true_r in H
               | match type of H with context [match ?x with _ => _ end] => is_var x; destruct x; cbn in H end
               | match type of H with context [if ?x then _ else _] => is_var x; destruct x; cbn in H end ].

Lemma lang_len v U L D : lang v U L D = true -> (length U <= 2)%nat.
Proof.
  intros H. destruct U as [|i1 [|i2 [|i3 U]]]; cbn [length]; try lia. exfalso.
  destruct v as [|rv0| | |rv0|[|]]; crunch H.
Qed.

Lemma lang_irun_last v U D : lang v U LNone D = true -> forall hd b rv, U = hd ++ [IRun b rv] -> hd = [].
Proof.
  intros H hd b rv E. pose proof (lang_len _ _ _ _ H) as Hl. subst U. rewrite app_length in Hl. cbn [length] in Hl.
  destruct hd as [|i [|j r]]; [reflexivity | | cbn [length] in Hl; lia]. exfalso. cbn [app] in H.
  destruct v as [|vrv| | |vrv|[|]]; crunch H.
Qed.

(** a good word without end items and without local entry: the view is not "running" unless the
    compute message is still under way *)
Lemma lang_good_noend v U D : lang v U LNone D = true -> badw v U LNone = false -> noend U = true ->
  noirun U = true /\
  match v with VR _ | VM true => False | VM false => exists rv', D = [IDC (Some rv') true] | _ => True end.
Proof.
  intros H Hb He. pose proof (lang_len _ _ _ _ H) as Hl.
  destruct U as [|i1 [|i2 [|i3 U]]]; [| | |cbn [length] in Hl; lia].
  - split; [reflexivity|]. destruct v as [|vrv| | |vrv|[|]]; try exact I; try (cbn in Hb; discriminate).
    cbn in H. rewrite andb_false_r, orb_false_r in H. destruct D as [|[[rv'|] [|]| |] [|d2 D]]; try discriminate. eauto.
  - destruct i1; try (cbn in He; discriminate); try (cbn in Hb; discriminate); (split; [reflexivity|]); destruct v as [|vrv| | |vrv|[|]]; try exact I; crunch H.
  - exfalso. destruct i1; destruct i2; try (cbn in He; discriminate); destruct v as [|vrv| | |vrv|[|]]; crunch H.
Qed.

Lemma lang_idc_not_running v U L a b add : lang v U L (IDC a b :: add) = true ->
  match v with VR _ | VM true => False | _ => True end.
Proof. intros H. destruct v as [|vrv| | |vrv|[|]]; try exact I; cbn in H; rewrite ?andb_false_r in H; discriminate. Qed.

Lemma view_running st w jr : match view_of st w jr with VR _ | VM _ => rroot st = Some w | _ => True end.
Proof.
  destruct st as [n|w1 rv1|w1|w1|w1 rv1|[|w0 ws]|]; cbn [view_of rroot]; try exact I;
    try (destruct (N.eqb w1 w) eqn:E; [apply N.eqb_eq in E; subst|]; try exact I; reflexivity).
  destruct (N.eqb w0 w) eqn:E; [apply N.eqb_eq in E; subst; reflexivity | exact I].
Qed.
Lemma root_view st w jr : rroot st = Some w -> (exists rv, view_of st w jr = VR rv) \/ view_of st w jr = VM jr.
Proof.
  destruct st as [n|w1 rv1|w1|w1|w1 rv1|[|w0 ws]|]; cbn [view_of rroot]; try discriminate; intros E; inversion E; subst; rewrite N.eqb_refl; eauto.
Qed.

Lemma runs_irun x us : runs x us -> exists b rv, In (IRun b rv) (flat_map (uitem_of x) us).
Proof.
  intros (rv & [H|H]); [exists false | exists true]; exists rv; apply in_flat_map; eexists; (split; [exact H|]);
    cbn [uitem_of]; unfold sel; rewrite tid_eqb_refl; left; reflexivity.
Qed.
Lemma noirun_spec U b rv : noirun U = true -> ~ In (IRun b rv) U.
Proof. unfold noirun. rewrite forallb_forall. intros H Hin. specialize (H _ Hin). discriminate. Qed.

Lemma noend_ends x us : noend (flat_map (uitem_of x) us) = false -> ends x us.
Proof.
  induction us as [|u r IH]; cbn [flat_map]; [discriminate|]. unfold noend in *. rewrite forallb_app. intros H. apply andb_false_iff in H.
  destruct H as [H|H].
  - destruct u; cbn [uitem_of] in H; unfold sel in H; try (destruct (tid_eqb t x) eqn:E; [apply tid_eqb_eq in E; subst t|]); cbn in H; try discriminate.
    + left. left. reflexivity.
    + right. exists k. left. reflexivity.
  - destruct (IH H) as [A|(k & A)]; [left; right; exact A | right; exists k; right; exact A].
Qed.
Lemma noend_rr x ids : noend (flat_map (fun y => sel y x IRR) ids) = true.
Proof.
  induction ids as [|y r IH]; [reflexivity|]. cbn [flat_map]. unfold noend in *. rewrite forallb_app, IH. unfold sel. destruct (tid_eqb y x); reflexivity.
Qed.

Definition upr (o : op) (w : wid) (p p' : wproc) : Prop :=
  p_up p' = p_up p \/ (o = OpDUp w /\ exists m, p_up p = m :: p_up p').

Definition sfr (o : op) (s s' : sys) : Prop :=
  forall w p', find_proc (s_procs s') w = Some p' ->
    exists p add, find_proc (s_procs s) w = Some p /\ p_backlog p' = p_backlog p /\ p_running p' = p_running p /\
      p_down p' = p_down p ++ add /\ upr o w p p'.

Lemma sfr_of_popped A o s s1 o1 s' outs : popped s o s1 -> PR A (s1, o1) (s', outs) -> sfr o s s'.
Proof.
  intros Hpop (_ & P & _) w p' Hp'. destruct (P _ _ Hp') as (p1 & add & X1 & X2 & X3 & X4 & X5 & _). cbn [fst] in X1.
  assert (Hp1 : exists p, find_proc (s_procs s) w = Some p /\ p_backlog p1 = p_backlog p /\ p_running p1 = p_running p /\ p_down p1 = p_down p /\ upr o w p p1).
  { destruct Hpop as [->|(w0 & p & m & rest & -> & Hp & Eu & ->)]; [exists p1; repeat split; auto; left; reflexivity|].
    cbn [s_procs with_procs] in X1. rewrite find_set_proc in X1. cbn [wp_up wp_upd p_id] in X1. rewrite (proj2 (find_proc_some _ _ _ Hp)) in X1.
    destruct (N.eqb w w0) eqn:E; [|exists p1; repeat split; auto; left; reflexivity]. apply N.eqb_eq in E. subst w0. inversion X1; subst p1. exists p.
    split; [exact Hp|]. cbn. repeat split; auto. right. split; [reflexivity|]. exists m. exact Eu. }
  destruct Hp1 as (p & Hp & Eb & Er & Ed & Hu). exists p, add. split; [exact Hp|]. split; [congruence|]. split; [congruence|].
  split; [rewrite X5, Ed; reflexivity|]. unfold upr in *. rewrite X4. exact Hu.
Qed.

Lemma step_sfr s o s' outs : server_op o -> INV s -> PROTO s -> PROTO s' -> step s o = Ok (s', outs) -> sfr o s s'.
Proof.
  intros Ho HI HP HP' H.
  assert (Hpr : ExecU6.server_op o -> sfr o s s').
  { intros Ho6. destruct (step_server_PR s o s' outs Ho6 HI HP H) as (s1 & o1 & Hpop & _ & HR). exact (sfr_of_popped _ _ _ _ _ _ _ Hpop HR). }
  destruct o; try destruct Ho; try exact (Hpr I).
  - pose proof (step_lost_split _ _ _ _ _ _ _ _ H) as H0.
    destruct (on_remove_worker_EXF (s, []) _ _ _ _ _ (s', outs) (inv_cb _ HI) (pr_sorted _ HP) (pr_sorted _ HP') H0) as (_ & _ & P & _).
    intros w0 p' Hp'. destruct (P w0 p' Hp') as (_ & p0 & add & X1 & X2 & X3 & X4 & X5 & _). exists p0, add. repeat split; auto. left. exact X4.
  - cbn [step] in H. apply bind_ok in H. destruct H as (lj & _ & H). inversion H; subst. intros w p' Hp'. exists p', []. rewrite app_nil_r. repeat split; auto. left. reflexivity.
Qed.

Lemma sel_in {A} y x (a it : A) : In it (sel y x a) -> y = x.
Proof. unfold sel. destruct (tid_eqb y x) eqn:E; [intros _; apply tid_eqb_eq; exact E | intros []]. Qed.

Lemma uitems_seen s w p x : PROTO s -> find_proc (s_procs s) w = Some p -> uitems x (p_up p) <> [] -> seen (s_hq s) x = true.
Proof.
  intros HP Hp Hne. apply (pr_seen _ HP w p x Hp). unfold proc_tids. apply in_app_iff. right. apply in_app_iff. left.
  destruct (uitems x (p_up p)) as [|it r] eqn:E; [congruence|]. assert (Hin : In it (uitems x (p_up p))) by (rewrite E; left; reflexivity).
  unfold uitems in Hin. apply in_flat_map in Hin. destruct Hin as (m & Hm & Hit). apply in_flat_map. exists m. split; [exact Hm|].
  destruct m as [us|ids]; cbn [uitems_msg umsg_tids] in *; apply in_flat_map in Hit; destruct Hit as (u & Hu & Hit).
  - apply in_flat_map. exists u. split; [exact Hu|]. destruct u; cbn [uitem_of wupdate_tids] in *; try (apply sel_in in Hit; subst; left; reflexivity). destruct Hit.
  - apply sel_in in Hit. subst. exact Hu.
Qed.

(** the word-level core of the argument *)
Lemma bad_step v v' hd U' D D' :
  lang v (hd ++ U') LNone D = true -> badw v (hd ++ U') LNone = false -> lang v' U' LNone D' = true -> badw v' U' LNone = true -> noend hd = true ->
  U' = [] /\ noirun hd = true /\ match v' with VR _ | VM true => True | _ => False end /\
  match v with VR _ | VM true => False | VM false => exists rv', D = [IDC (Some rv') true] | _ => True end.
Proof.
  intros Hl Hg Hl' Hb Hne. cbn [badw is_lnone andb] in Hb.
  destruct U' as [|i1 [|i2 U']].
  - rewrite app_nil_r in *. destruct (lang_good_noend _ _ _ Hl Hg Hne) as [A B]. split; [reflexivity|]. split; [exact A|]. split; [|exact B].
    destruct v' as [|vrv| | |vrv|[|]]; try discriminate; exact I.
  - destruct i1; try discriminate. pose proof (lang_irun_last _ _ _ Hl hd prefilled rv eq_refl) as E. subst hd. cbn in Hg. discriminate.
  - destruct i1; discriminate.
Qed.

Lemma find_task_in_map c x t : find_task (c_tasks c) x = Some t -> In x (map t_id (c_tasks c)).
Proof. intros H. destruct (find_task_some _ _ _ H) as [Hin Hid]. rewrite <- Hid. apply in_map. exact Hin. Qed.

Theorem NB_server s o s' outs : server_op o -> INV s -> INV s' -> PROTO s -> PROTO s' -> NB s -> step s o = Ok (s', outs) -> NB s'.
Proof.
  intros Ho HI HI' HP HP' HN H w p' x t' Hp' Hf'.
  destruct (badw _ _ _) eqn:Hb; [exfalso | reflexivity].
  destruct (step_sfr s o s' outs Ho HI HP HP' H w p' Hp') as (p & add & Hp & Eb & Er & Ed & Hu).
  assert (EL : local p' x = local p x) by (unfold local; rewrite Eb, Er; reflexivity).
  pose proof (pr_words _ HP' w p' x t' Hp' Hf') as Hl'. rewrite EL in Hb, Hl'.
  assert (ELn : local p x = LNone) by (destruct (local p x); try reflexivity; cbn in Hb; discriminate). rewrite ELn in *.
  pose proof (cb_s _ (inv_cb _ HI)) as Hcs. change (core_of (s, [])) with (s_core s) in Hcs.
  destruct (find_task_some _ _ _ Hf') as [Hin' Hid'].
  (* the prefix of the up channel consumed by this operation *)
  assert (Hhd : exists hd, uitems x (p_up p) = hd ++ uitems x (p_up p') /\
            (hd = [] \/ exists m rest, o = OpDUp w /\ p_up p = m :: rest /\ hd = uitems_msg x m)).
  { destruct Hu as [Eu|(Eo & m & Eu)]; [exists []; rewrite Eu; split; [reflexivity | left; reflexivity]|].
    exists (uitems_msg x m). rewrite Eu, uitems_cons. split; [reflexivity|]. right. exists m, (p_up p'). auto. }
  destruct Hhd as (hd & EU & Hhd).
  (* a running message of this worker for [x] among the consumed items *)
  assert (HT : step_RT s o x w -> exists b rv, In (IRun b rv) (uitems x (p_up p))).
  { intros HTx. destruct o; cbn [step_RT] in HTx; try contradiction. destruct (find_proc (s_procs s) w0) as [p0|] eqn:Hp0; [|destruct HTx].
    destruct (p_up p0) as [|[us|ids] rest0] eqn:Eu0; try destruct HTx. subst w0.
    assert (p0 = p) by congruence. subst p0. destruct (runs_irun _ _ H1) as (b & rv & Hi). exists b, rv.
    rewrite Eu0, uitems_cons. apply in_app_iff. left. exact Hi. }
  (* finished / failed among the consumed items: the task is gone *)
  assert (Hend : noend hd = true).
  { destruct (noend hd) eqn:Hne; [reflexivity|]. exfalso.
    destruct Hhd as [->|(m & rest & Eo & Em & ->)]; [discriminate|]. subst o.
    destruct m as [us|ids]; [|cbn [uitems_msg] in Hne; rewrite noend_rr in Hne; discriminate].
    cbn [uitems_msg] in Hne. apply noend_ends in Hne.
    cbn [step] in H. rewrite Hp, Em in H.
    match type of H with on_task_update ?s1 _ _ = _ =>
      assert (G : gone (core_of (s', outs)) x) by
        (refine (on_task_update_gone s1 _ _ _ _ _ H x Hne); [exact (inv_hok _ HI) | eapply (CB_same (s, [])); [reflexivity | reflexivity | exact (inv_cb _ HI)]]) end.
    apply G. exact (find_task_in_map _ _ _ Hf'). }
  (* where a running root comes from *)
  assert (Horig : rroot (t_state t') = Some w ->
            (exists t, find_task (c_tasks (s_core s)) x = Some t /\
               (rroot (t_state t) = Some w \/ ((exists sol, o = OpSched sol) /\ s_hq s' = s_hq s /\ srel t t'))) \/ step_RT s o x w).
  { intros Hr. destruct (match o with OpSched _ => true | _ => false end) eqn:Eo.
    - destruct o; try discriminate. left. pose proof H as H0. cbn [step] in H0. destruct (c_flag (s_core s)); [|discriminate].
      destruct (run_scheduling_SR _ _ _ H0 t' Hin') as (t & Hin & Ei & Hs).
      exists t. split; [rewrite <- Hid', <- Ei; apply in_find_task; [exact (CS_sorted _ Hcs) | exact Hin]|]. right.
      split; [eauto|]. split; [exact (run_scheduling_same _ _ _ H0) | exact Hs].
    - assert (Hns : forall sol, o <> OpSched sol) by (intros sol E; subst o; discriminate).
      destruct (step_RO s o s' outs Hns H t' w Hin' Hr) as [(t & Hin & Ei & Hrt)|HTx]; [left | right; rewrite <- Hid'; exact HTx].
      exists t. split; [rewrite <- Hid', <- Ei; apply in_find_task; [exact (CS_sorted _ Hcs) | exact Hin] | left; exact Hrt]. }
  destruct (find_task (c_tasks (s_core s)) x) as [t|] eqn:Hf.
  - (* the task was known before *)
    pose proof (pr_words _ HP w p x t Hp Hf) as Hl. pose proof (HN w p x t Hp Hf) as Hg. rewrite ELn, EU in *.
    rewrite Ed, ditems_app in Hl'.
    destruct (bad_step _ _ _ _ _ _ Hl Hg Hl' Hb Hend) as (EU' & Hni & Hv' & Hv). rewrite EU', app_nil_r in *.
    assert (Hr : rroot (t_state t') = Some w).
    { pose proof (view_running (t_state t') w (job_running (s_hq s') x)) as X. destruct (view_of (t_state t') w (job_running (s_hq s') x)); try contradiction; exact X. }
    destruct (Horig Hr) as [(t0 & Ht0 & [Hr0|((sol & Eo) & Ehq & Hs)])|HTx].
    + inversion Ht0; subst t0. destruct (root_view _ _ (job_running (s_hq s) x) Hr0) as [(rv & Ev)|Ev]; rewrite Ev in Hv; [contradiction|].
      destruct (job_running (s_hq s) x); [contradiction|]. destruct Hv as (rv' & ED). rewrite ED in Hl'. cbn [app] in Hl'.
      pose proof (lang_idc_not_running _ _ _ _ _ _ Hl') as X. destruct (view_of (t_state t') w (job_running (s_hq s') x)) as [|vrv| | |vrv|[|]]; contradiction.
    + inversion Ht0; subst t0. rewrite Ehq in *. destruct Hs as [Es|[Ew|(w1 & E1 & E2)]].
      * rewrite Es in Hv'. destruct (view_of (t_state t) w (job_running (s_hq s) x)) as [|vrv| | |vrv|[|]]; contradiction.
      * pose proof (pr_jr _ HP x t Hf) as Hj. unfold jr_ok in Hj. unfold is_waiting in Ew. destruct (t_state t); try discriminate.
        apply negb_true_iff in Hj. rewrite (proj2 (find_task_some _ _ _ Hf)) in Hj. rewrite Hj in Hv'.
        pose proof (pr_jr _ HP' x t' Hf') as Hj'. unfold jr_ok in Hj'. rewrite Ehq, Hid', Hj in Hj'.
        destruct (t_state t') as [n'|w1 rv1|w1|w1|w1 rv1|[|w0 ws]|]; cbn [view_of] in Hv'; try contradiction; try discriminate;
          try (destruct (N.eqb w1 w); contradiction). destruct (N.eqb w0 w); contradiction.
      * rewrite E2 in Hr. discriminate.
    + destruct (HT HTx) as (b & rv & Hi). exact (noirun_spec _ _ _ Hni Hi).
  - (* a new task *)
    pose proof (new_unseen s s' outs x t' HI HI' (G_step _ _ _ _ (inv_fresh _ HI) H) Hf Hf') as Hu0.
    assert (EU0 : uitems x (p_up p) = []).
    { destruct (uitems x (p_up p)) eqn:E; [reflexivity|]. rewrite (uitems_seen s w p x HP Hp) in Hu0; [discriminate | rewrite E; discriminate]. }
    rewrite EU0 in EU. destruct hd; [|discriminate]. cbn [app] in EU. rewrite <- EU in Hb.
    assert (Hr : rroot (t_state t') = Some w).
    { pose proof (view_running (t_state t') w (job_running (s_hq s') x)) as X. cbn in Hb. destruct (view_of (t_state t') w (job_running (s_hq s') x)) as [|vrv| | |vrv|[|]]; try discriminate; exact X. }
    destruct (Horig Hr) as [(t0 & Ht0 & _)|HTx]; [discriminate|].
    destruct (HT HTx) as (b & rv & Hi). rewrite EU0 in Hi. destruct Hi.
Qed.

