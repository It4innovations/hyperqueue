(** Protocol invariant, part 14: the client requests that touch the job layer only (open, close,
    forget, prune), the cancellation of a job, and the connection of a worker preserve [PROTO]. *)
From HQ Require Import Base.Prelude Cluster.Types Cluster.Core Cluster.Reactor Cluster.Worker Cluster.Server Cluster.Sys Cluster.ProofsJob Cluster.ProofsMore Cluster.ProofsTerminal Cluster.ProofsStep Cluster.ProofsFinal Cluster.BijBase Cluster.BijCore Cluster.BijHq Cluster.BijSt Cluster.BijReact Cluster.NoPanicC1 Cluster.NoPanicU0 Cluster.NoPanicU1 Cluster.NoPanicU2 Cluster.NoPanicU5 Cluster.NoPanicU6 Cluster.NoPanicU7 Cluster.NoPanicU8 Cluster.NoPanicU9 Cluster.NoPanicU10 Cluster.NoPanicU11.
From HQ Require Import Cluster.ModelFacts.
From Coq Require Import ZArith Lia Sorting.Sorted.
Local Open Scope N_scope.

Notation jactive := NoPanicU6.jactive.

Lemma PROTO_hq s h' :
  PROTO s -> UH s ->
  (forall y t, find_task (c_tasks (s_core s)) y = Some t -> jv h' y = jv (s_hq s) y) ->
  (forall y, seen (s_hq s) y = true -> seen h' y = true) ->
  PROTO (mkSys (s_core s) h' (s_procs s)).
Proof.
  intros HP [Hcs Hpa] Hj Hs. apply (SP_final (mkSys (s_core s) h' (s_procs s), [])).
  apply (SP_hq x0 (s, []) no_pum [] h' []); [apply SP_init; assumption | | exact Hs].
  intros y t Hy _. eapply Hj. exact Hy.
Qed.

Lemma present_lt s y t : UH s -> find_task (c_tasks (s_core s)) y = Some t -> fst y < h_counter (s_hq s).
Proof.
  intros [_ Hpa] Hy. destruct (Hpa _ _ Hy) as [Hs _]. unfold seen in Hs. apply andb_true_iff in Hs. apply N.ltb_lt. apply Hs.
Qed.

Lemma open_PROTO s mf s' outs : PROTO s -> UH s -> step s (OpOpen mf) = Ok (s', outs) -> PROTO s'.
Proof.
  intros HP HU H. cbn [step handle_open] in H. inversion H; subst s'. clear H.
  cbn [emit fst hq_with with_hq]. unfold hq_jobs, hq_counter. cbn [fst].
  apply (PROTO_hq s _ HP HU).
  - intros y t Hy. pose proof (present_lt _ _ _ HU Hy) as Hlt. unfold jv. cbn [h_jobs]. rewrite find_job_set. cbn [j_id].
    destruct (N.eqb (fst y) (h_counter (s_hq s))) eqn:E; [apply N.eqb_eq in E; lia | reflexivity].
  - intros y Hy. unfold seen in *. cbn [h_jobs h_counter]. apply andb_true_iff in Hy. destruct Hy as [Ha Hb]. apply N.ltb_lt in Ha.
    rewrite find_job_set. cbn [j_id]. destruct (N.eqb (fst y) (h_counter (s_hq s))) eqn:E; [apply N.eqb_eq in E; lia|].
    rewrite Hb, andb_true_r. apply N.ltb_lt. lia.
Qed.

Lemma prune_PROTO s s' outs : PROTO s -> step s OpPrune = Ok (s', outs) -> PROTO s'.
Proof. intros HP H. cbn [step] in H. apply bind_ok in H. destruct H as (lj & _ & H). inversion H; subst. exact HP. Qed.

Lemma PROTO_hq_chg (P : tid -> Prop) s s1 :
  PROTO s -> UH s -> core_of s1 = s_core s -> s_procs (fst s1) = s_procs s -> hq_chg P (s_hq s) (hq_of s1) ->
  (forall y t, find_task (c_tasks (s_core s)) y = Some t -> ~ P y) -> PROTO (fst s1).
Proof.
  intros HP [Hcs Hpa] Ec Ep Hc HNP. apply SP_final.
  apply (SP_hq_chg x0 P (s, []) no_pum [] s1); [apply SP_init; assumption | exact Ec | exact Ep | exact Hc|].
  intros y t Hy _. eapply HNP. exact Hy.
Qed.

Lemma close_PROTO s j s' outs : PROTO s -> UH s -> step s (OpClose j) = Ok (s', outs) -> PROTO s'.
Proof.
  intros HP HU H. cbn [step] in H. unfold handle_close, hq_jobs in H. cbn [fst] in H.
  destruct (find_job (h_jobs (s_hq s)) j) as [jb|] eqn:Ej; [|inversion H; subst; exact HP].
  destruct (j_open jb); [|inversion H; subst; exact HP].
  apply bind_ok in H. destruct H as (s1 & H1 & H). inversion H; subst s'. clear H.
  destruct (check_termination_frame _ _ _ H1) as [Ec Ep]. pose proof (check_termination_chg _ _ _ H1) as Hc.
  change (fst (emit s1 (OResp (RClose 0)))) with (fst s1).
  apply (PROTO_hq_chg (fun _ => False) s s1 HP HU); [rewrite Ec; reflexivity | rewrite Ep; reflexivity | | auto].
  eapply hq_chg_trans; [|exact Hc].
  match type of H1 with check_termination ?sx _ = _ => change (s_hq s) with (hq_of (s, @nil out)); apply (jt_same_chg (s, []) sx); [reflexivity|] end.
  intros id. rewrite jt_emit, jt_set_job. cbn [j_id j_tasks].
  destruct (N.eqb id (j_id jb)) eqn:E; [|reflexivity]. apply N.eqb_eq in E. subst id. unfold jt, hq_of. cbn [fst].
  rewrite (find_job_id _ _ _ Ej), Ej. reflexivity.
Qed.

Lemma forget_PROTO s j s' outs : PROTO s -> UH s -> HOK (s_hq s) -> step s (OpForget j) = Ok (s', outs) -> PROTO s'.
Proof.
  intros HP HU Hok H. cbn [step] in H. unfold handle_forget, hq_jobs, hq_counter in H. cbn [fst] in H.
  destruct (find_job (h_jobs (s_hq s)) j) as [jb|] eqn:Ej; [|inversion H; subst; exact HP].
  apply bind_ok in H. destruct H as (na & Hna & H).
  destruct (negb (j_open jb) && na) eqn:Eb; [|inversion H; subst; exact HP].
  inversion H; subst s'. clear H. cbn [emit fst hq_with with_hq].
  apply andb_true_iff in Eb. destruct Eb as [_ ->].
  rewrite (has_no_active_ok _ (Hok _ (find_job_in _ _ _ Ej))) in Hna. inversion Hna as [Hz]. apply andb_true_iff in Hz. destruct Hz as [Z1 Z2].
  apply N.eqb_eq in Z1, Z2. pose proof (find_job_id _ _ _ Ej) as Eid.
  apply (PROTO_hq s _ HP HU).
  - intros y t Hy. destruct HU as [_ Hpa]. destruct (Hpa _ _ Hy) as [_ Ha]. unfold jv in *. cbn [h_jobs].
    destruct (N.eq_dec (fst y) j) as [E|E]; [|rewrite (find_job_del _ _ _ E); reflexivity].
    exfalso. rewrite E, Ej in Ha. destruct Ha as [A|A]; inversion A as [B]; apply NoPanicC1.cnt_pos in B; lia.
  - intros y Hy. unfold seen in *. cbn [h_jobs h_counter]. apply andb_true_iff in Hy. destruct Hy as [Ha Hb]. rewrite Ha. cbn [andb].
    destruct (N.eq_dec (fst y) j) as [E|E]; [rewrite E, find_job_del_same; reflexivity | rewrite (find_job_del _ _ _ E); exact Hb].
Qed.

Lemma set_cancel_state_chg s jid ids s' : set_cancel_state s jid ids = Ok s' ->
  hq_chg (fun y => In y ids) (hq_of s) (hq_of s') /\ core_of s' = core_of s /\ s_procs (fst s') = s_procs (fst s).
Proof.
  unfold set_cancel_state. destruct ids as [|i0 ir] eqn:Eids; [intros H; inversion H; subst; split; [apply hq_chg_refl | split; reflexivity]|].
  rewrite <- Eids. intros H. apply bind_ok in H. destruct H as (j & Hj & H). apply bind_ok in H. destruct H as (j1 & Hm & H).
  destruct (jt_get _ _ _ _ Hj) as [Ej Eid].
  destruct (mark_tasks_find _ _ _ _ _ Hm) as (M1 & M2 & M3). pose proof (mark_tasks_found _ _ _ _ _ Hm) as M4.
  pose proof (check_termination_chg _ _ _ H) as C. destruct (check_termination_frame _ _ _ H) as [Fc Fp].
  split; [|split; [rewrite Fc; reflexivity | rewrite Fp; reflexivity]].
  eapply hq_chg_trans; [|eapply hq_chg_weaken; [|exact C]; intros t0 []].
  match type of H with check_termination ?s1 _ = _ => apply (hq_chg_of_jt _ s s1); [reflexivity|] end.
  intros id. rewrite !jt_emit, jt_set_job. cbn [j_id job_upd j_tasks]. rewrite M1, Eid.
  destruct (N.eqb id jid) eqn:E1.
  - apply N.eqb_eq in E1. subst id. right. exists (j_tasks j), (j_tasks j1). split; [exact Ej|]. split; [reflexivity|].
    rewrite Eid in M2. intros k. rewrite M3. pose proof (snd_mem_in k ids jid M2) as Hmem.
    destruct (snd_mem k ids) eqn:Em.
    + split; [intros HN; exfalso; apply HN; apply Hmem; reflexivity|].
      assert (Hin : In (jid, k) ids) by (apply Hmem; reflexivity). pose proof (M4 _ Hin) as Hf. cbn in Hf.
      split; [intros X; contradiction | discriminate].
    + split; [reflexivity | tauto].
  - destruct (jt s id) as [l|]; [right; exists l, l; repeat split; auto | left; auto].
Qed.

Lemma cancel_PROTO s j s' outs : PROTO s -> UH s -> step s (OpCancel j) = Ok (s', outs) -> PROTO s'.
Proof.
  intros HP HU H. cbn [step] in H. unfold handle_cancel, hq_jobs in H. cbn [fst] in H.
  destruct (find_job (h_jobs (s_hq s)) j) as [jb|] eqn:Ej; [|inversion H; subst; exact HP].
  destruct (non_finished_task_ids jb) as [|i0 ir] eqn:Eids; [inversion H; subst; exact HP|]. rewrite <- Eids in H.
  apply bind_ok in H. destruct H as (s1 & H1 & H). apply bind_ok in H. destruct H as (already & _ & H).
  apply bind_ok in H. destruct H as (s2 & H2 & H). inversion H; subst s'. clear H.
  destruct HU as [Hcs Hpa].
  destruct (on_cancel_tasks_SP x0 (s, []) no_pum _ s1 (SP_init s [] HP Hcs Hpa) H1) as (S1 & N1 & _).
  destruct (set_cancel_state_chg _ _ _ _ H2) as (Hc & Ec & Ep).
  change (fst (emit s2 (OResp (RCancelOk (map snd (non_finished_task_ids jb)) already)))) with (fst s2).
  apply SP_final. apply (SP_hq_chg x0 _ s1 no_pum [] s2 S1 Ec Ep Hc).
  intros y t Hy _ Hin. rewrite (N1 y Hin) in Hy. discriminate.
Qed.

Definition quiet (m : dmsg) : Prop :=
  match m with DCompute _ | DNewRq _ _ => False | _ => True end.
Lemma down_ok_quiet rqs m : quiet m -> forall d n, down_ok rqs n (d ++ [m]) = down_ok rqs n d.
Proof.
  intros Hq. induction d as [|m0 r IH]; intros n; cbn [app].
  - destruct m; try destruct Hq; reflexivity.
  - destruct m0; cbn [down_ok]; rewrite ?IH; reflexivity.
Qed.
Lemma newrq_quiet m d : quiet m -> newrq_defs (d ++ [m]) = newrq_defs d.
Proof. intros Hq. rewrite newrq_app. destruct m; try destruct Hq; cbn; rewrite app_nil_r; reflexivity. Qed.

Lemma connect_PROTO s rs g s' outs :
  PROTO s ->
  find_proc (s_procs s) (c_wcounter (s_core s) + 1) = None ->
  (forall x t jr, find_task (c_tasks (s_core s)) x = Some t -> view_of (t_state t) (c_wcounter (s_core s) + 1) jr = VN) ->
  step s (OpConnect rs g) = Ok (s', outs) -> PROTO s'.
Proof.
  intros [H9 H1 H2 H3 H4 H5 H6 H7 R1 R2] Hnew Hvn H. cbn [step] in H. unfold on_new_worker in H. cbv zeta in H.
  inversion H; subst s'. clear H.
  set (w := c_wcounter (s_core s) + 1) in *.
  cbn [emit fst snd core_of st_core with_core with_procs broadcast ask_scheduling s_core s_hq s_procs upd_worker with_workers with_flag with_wcounter c_rqs c_tasks c_redirects c_workers].
  set (f := fun p => push_down p (DNewWorker w)).
  assert (Hf : forall p, p_id (f p) = p_id p) by reflexivity.
  assert (Hfp : forall w' q, find_proc (set_proc (map f (s_procs s)) (new_proc w rs (c_rqs (s_core s)))) w' = Some q ->
            (w' = w /\ q = new_proc w rs (c_rqs (s_core s))) \/ (w' <> w /\ exists p, find_proc (s_procs s) w' = Some p /\ q = f p)).
  { intros w' q Hq. rewrite find_set_proc in Hq. cbn [new_proc p_id] in Hq. destruct (N.eqb w' w) eqn:E.
    - apply N.eqb_eq in E. left. inversion Hq. auto.
    - apply N.eqb_neq in E. right. split; [exact E|]. rewrite (find_map_proc f _ _ Hf) in Hq.
      destruct (find_proc (s_procs s) w') as [p|]; [|discriminate]. inversion Hq. eauto. }
  constructor; cbn [s_core s_hq s_procs c_rqs c_tasks c_redirects]; try assumption.
  - apply set_proc_sorted. apply map_proc_sorted; assumption.
  - intros w' q x t Hq Hx. destruct (Hfp _ _ Hq) as [[-> ->]|(Hne & p & Hp & ->)].
    + rewrite (Hvn x t _ Hx). reflexivity.
    + unfold f. cbn [push_down p_up p_down]. rewrite ditems_app. cbn [ditems flat_map ditems_msg]. rewrite app_nil_r.
      change (local (push_down p (DNewWorker w)) x) with (local p x). eapply H1; eassumption.
  - intros w' q Hq. destruct (Hfp _ _ Hq) as [[-> ->]|(Hne & p & Hp & ->)].
    + unfold rqs_ok. cbn [new_proc p_rqs p_down down_ok newrq_defs flat_map]. rewrite app_nil_r. apply rqs_eqb_eq. reflexivity.
    + specialize (H2 _ _ Hp). unfold rqs_ok, f in *. cbn [push_down p_rqs p_down c_rqs].
      rewrite (down_ok_quiet _ (DNewWorker w) I), (newrq_quiet (DNewWorker w) _ I). exact H2.
  - intros w' q Hq. destruct (Hfp _ _ Hq) as [[-> ->]|(Hne & p & Hp & ->)]; [reflexivity|].
    specialize (H3 _ _ Hp). exact H3.
  - intros w' q x Hq Hx. destruct (Hfp _ _ Hq) as [[-> ->]|(Hne & p & Hp & ->)]; [destruct Hx|].
    eapply H4; [exact Hp|]. unfold proc_tids, f in *. cbn [push_down p_up p_down p_backlog p_running] in Hx.
    rewrite flat_map_app in Hx. cbn [flat_map dmsg_tids] in Hx. rewrite !app_nil_r in Hx. exact Hx.
Qed.
