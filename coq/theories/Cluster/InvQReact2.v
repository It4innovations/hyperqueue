(** The queue invariant, part 6: the reactor, second half - task updates from the workers
    ([task_finished], [task_running], [task_reject], [task_failed], [on_task_update]) and the retract
    response.  [task_failed] cancels the rest of the job when the max-fails limit is reached: there
    the bijection with the job layer is needed to know that every removed task was dequeued. *)
From HQ Require Import Base.Prelude Cluster.Types Cluster.Core Cluster.Reactor Cluster.Worker Cluster.Server Cluster.Sys Cluster.Monitors Cluster.ProofsJob Cluster.ProofsMore Cluster.ProofsTerminal Cluster.ProofsStep Cluster.BijBase Cluster.BijCore Cluster.BijHq Cluster.BijSt Cluster.BijReact Cluster.FrameGen Cluster.CrashFrame Cluster.InvQBase Cluster.InvQTake Cluster.InvQInv Cluster.InvQOps Cluster.InvQReact.
From HQ Require Import Cluster.ReactSplit.
From HQ Require Import Cluster.RejHyp Cluster.StepShape.
From HQ Require Import Cluster.ModelFacts.
From Coq Require Import ZArith Lia Sorting.Sorted.
Local Open Scope N_scope.

Arguments N.add : simpl never.
Arguments N.sub : simpl never.

Lemma QI_mark_nowhere Z c id t :
  QI none Z c -> find_task (c_tasks c) id = Some t ->
  nat_place (c_redirects c) id (t_state t) = Nowhere -> (forall w, t_state t <> Retracting w) ->
  QI (exU none id Nowhere) Z c.
Proof. exact (QI_mark none Z c id t). Qed.

(** * [task_finished] *)
Lemma wake_consumers_QI Z csm : forall c ret c' ret',
  QI (exL Ready ret none) Z c -> wake_consumers c csm ret = Ok (c', ret') ->
  QI (exL Ready ret' none) Z c'.
Proof.
  induction csm as [|x r IH]; cbn [wake_consumers]; intros c ret c' ret' V H; [inversion H; subst; exact V|].
  apply bind_ok in H. destruct H as (t & Ht & H). apply get_task_find in Ht.
  pose proof (find_task_id _ _ _ Ht) as Hid.
  destruct (t_state t) as [n| | | | | |] eqn:Est; try discriminate.
  destruct (N.eqb n 0) eqn:En; [discriminate|].
  assert (Hnr : find_redirect (c_redirects c) x = None) by (eapply QV_no_redirect; [exact V | exact Ht | intros w0; congruence]).
  destruct (N.eqb (n - 1) 0) eqn:En1.
  - apply bind_ok in H. destruct H as ([qs rt] & Ha & H).
    eapply IH; [|exact H].
    qi_simpl.
    assert (V1 : QV (exL Ready rt (exR (exL Ready ret none) x)) Z (set_task (c_tasks c) (with_state t (Waiting (n - 1)))) qs (c_redirects c) (c_rqs c)).
    { eapply QV_requeue; [exact V | exact Ht | exact Hid | reflexivity | reflexivity | | exact Hnr | | | exact Ha].
      - rewrite Est. unfold exp_place, exL, none. destruct (tid_mem x ret); [discriminate|]. cbn. rewrite En. discriminate.
      - cbn. rewrite En1. reflexivity.
      - cbn. discriminate. }
    eapply QV_ex_change; [exact V1 | |].
    + intros y t0 Hf0. unfold exp_place, exL, exR, none. rewrite tid_mem_app.
      destruct (tid_mem y ret) eqn:Em1, (tid_mem y rt) eqn:Em2, (tid_eqb y x) eqn:E; try reflexivity.
      apply tid_eqb_eq in E. subst y. rewrite find_set_task in Hf0. cbn [t_id with_state] in Hf0. rewrite Hid, (proj2 (tid_eqb_eq x x) eq_refl) in Hf0.
      inversion Hf0; subst t0. cbn [t_state with_state nat_place]. rewrite En1. reflexivity.
    + intros y v Hv. destruct (qv_red _ _ _ _ _ _ V1 _ _ Hv) as (E1 & t0 & w & Hf0 & Hw).
      unfold exL, exR, none in E1 |- *. rewrite tid_mem_app.
      destruct (tid_mem y ret) eqn:Em1, (tid_mem y rt) eqn:Em2, (tid_eqb y x) eqn:E; try discriminate; try reflexivity.
      apply tid_eqb_eq in E. subst y. rewrite find_set_task in Hf0. cbn [t_id with_state] in Hf0. rewrite Hid, (proj2 (tid_eqb_eq x x) eq_refl) in Hf0.
      inversion Hf0; subst t0. discriminate.
  - eapply IH; [|exact H].
    qi_simpl. eapply QV_task0; [exact V | exact Ht | exact Hid | reflexivity | reflexivity | reflexivity | | |].
    + cbn [t_state with_state]. rewrite Est. unfold exp_place. destruct (exL Ready ret none x); [reflexivity|]. cbn. rewrite En, En1. reflexivity.
    + intros v Hv. congruence.
    + cbn. discriminate.
Qed.

Lemma task_finished_QI s w id s' b :
  QI none [] (core_of s) -> task_finished s w id = Ok (s', b) -> QI none [] (core_of s').
Proof.
  intros V H. unfold task_finished in H.
  destruct (find_task (c_tasks (core_of s)) id) as [t|] eqn:Ef; [|inversion H; subst; exact V].
  apply bind_ok in H. destruct H as (rq & _ & H). apply bind_ok in H. destruct H as (c1 & H1 & H).
  assert (Hnf : t_state t <> Finished) by (intros E; exact (qv_fin _ _ _ _ _ _ V _ _ Ef E)).
  assert (V1 : q_released none [] (core_of s) id c1).
  { destruct (released_QI _ _ _ _ _ _ _ V Ef Hnf (finished_release _ _ _ _ _ _ H1) (fun X => X)) as [[Hw _]|X]; [|exact X].
    unfold is_waiting in Hw. destruct (t_state t); discriminate. }
  destruct V1 as (V1 & T1 & R1 & Nr1).
  cbv zeta in H.
  apply bind_ok in H. destruct H as (s1 & Hf & H).
  destruct (process_task_finished_active _ _ _ Hf) as [C1 _]. unfold core_same in C1. cbn in C1.
  apply bind_ok in H. destruct H as ([c3 retracted] & Hw & H).
  apply bind_ok in H. destruct H as (s2 & Hr & H).
  apply bind_ok in H. destruct H as ([c4 stt] & Hrm & H).
  destruct stt; try discriminate. inversion H; subst; clear H.
  (* the task becomes Finished *)
  assert (V2 : QI none [id] (core_of s1)).
  { rewrite C1. qi_simpl. rewrite <- T1 in Ef. eapply QV_settle; [eapply QV_Z; [exact V1 | intros x []] | exact Ef | apply exU_same | exact (find_task_id _ _ _ Ef) | reflexivity | reflexivity | | reflexivity | intros _; left; reflexivity].
    intros x Hne. symmetry. apply exU_other. exact Hne. }
  pose proof (wake_consumers_QI [id] _ _ [] _ _ V2 Hw) as V3.
  pose proof (process_retracted_QI [id] (st_core s1 c3) _ _ V3 Hr) as V4.
  destruct (remove_task_QI none [id] [] _ _ _ _ lax_none V4 Hrm) as (V5 & _).
  - intros t2 Ht2. pose proof (remove_task_state _ _ _ _ _ Hrm Ht2) as Hst. right. unfold exp_place, none. rewrite <- Hst. cbn. split; [reflexivity|].
    eapply QV_no_redirect; [exact V4 | exact Ht2 | intros w0; congruence].
  - intros x [<-|[]] Hne. congruence.
  - exact V5.
Qed.

(** * [task_running] *)
Lemma task_running_QI s w id rv s' b :
  QI none [] (core_of s) -> task_running s w id rv = Ok (s', b) -> QI none [] (core_of s').
Proof.
  intros V H. unfold task_running in H.
  destruct (find_task (c_tasks (core_of s)) id) as [t|] eqn:Ef; [|inversion H; subst; exact V].
  apply bind_ok in H. destruct H as (rq & _ & H). apply bind_ok in H. destruct H as ([s1 ws] & H1 & H).
  apply bind_ok in H. destruct H as (s2 & H2 & H). inversion H; subst; clear H.
  destruct (process_task_started_active _ _ _ _ _ _ H2) as [C2 _]. unfold core_same in C2. rewrite C2. clear C2 H2.
  destruct (t_state t) as [|w1 rv1|w1|w1|w1 rv1|ws0|] eqn:Est; try discriminate.
  - destruct (negb (N.eqb w1 w)); [discriminate|]. destruct (negb (N.eqb rv1 rv)); [discriminate|]. inversion H1; subst; clear H1.
    qi_simpl. eapply QV_task0; [exact V | exact Ef | exact (find_task_id _ _ _ Ef) | reflexivity | reflexivity | reflexivity | | |].
    + cbn [t_state with_state]. rewrite Est. reflexivity.
    + intros v Hv. exfalso. rewrite (QV_no_redirect _ _ _ _ _ _ _ _ V Ef) in Hv; [discriminate | intros w0; congruence].
    + cbn. discriminate.
  - destruct (negb (N.eqb w1 w)); [discriminate|].
    apply bind_ok in H1. destruct H1 as (wk & _ & H1). apply bind_ok in H1. destruct H1 as (wk' & _ & H1).
    apply bind_ok in H1. destruct H1 as (q & Hq & H1). apply bind_ok in H1. destruct H1 as (q' & Hq' & H1). inversion H1; subst; clear H1.
    qi_simpl. apply nth_queue_ok in Hq.
    assert (Hnr : find_redirect (c_redirects (core_of s)) id = None) by (eapply QV_no_redirect; [exact V | exact Ef | intros w0; congruence]).
    pose proof (QV_q_remove _ _ _ _ _ _ _ _ _ _ V Ef Hq Hq' Hnr) as V1.
    eapply QV_settle; [exact V1 | exact Ef | apply exU_same | exact (find_task_id _ _ _ Ef) | reflexivity | reflexivity | | reflexivity | cbn; discriminate].
    intros x Hne. symmetry. apply exU_other. exact Hne.
  - destruct (negb (N.eqb w1 w)); [discriminate|].
    apply bind_ok in H1. destruct H1 as (c1 & Hc1 & H1). apply bind_ok in H1. destruct H1 as (wk & _ & H1).
    apply bind_ok in H1. destruct H1 as (wk' & _ & H1). inversion H1; subst; clear H1.
    assert (V0 : QI none [] (core_of (ask_scheduling s))) by exact V.
    destruct (trr_QI _ _ _ _ _ _ _ V0 Ef Est Hc1) as (V1 & T1 & R1 & Nr1).
    change (c_tasks c1 = c_tasks (core_of s)) in T1. rewrite <- T1 in Ef. qi_simpl.
    eapply QV_settle; [exact V1 | exact Ef | apply exU_same | exact (find_task_id _ _ _ Ef) | reflexivity | reflexivity | | reflexivity | cbn; discriminate].
    intros x Hne. symmetry. apply exU_other. exact Hne.
  - destruct ws0 as [|w0 ws']; [discriminate|]. destruct (N.eqb w0 w); [|discriminate]. inversion H1; subst. exact V.
Qed.

Lemma requeue_QI ex s t c1 s' b :
  QI ex [] c1 -> find_task (c_tasks c1) (t_id t) = Some t -> (forall x, x <> t_id t -> ex x = None) ->
  exp_place ex (c_redirects c1) (t_id t) (t_state t) <> Prefill -> find_redirect (c_redirects c1) (t_id t) = None ->
  (do (qs, ret) <- add_ready_task (c_queues c1) (with_state t (Waiting 0));
   do s'' <- process_retracted (st_core s (with_queues (upd_task c1 (with_state t (Waiting 0))) qs)) ret;
   Ok (s'', true)) = Ok (s', b) ->
  QI none [] (core_of s').
Proof.
  intros V Hf Hex Hpl Hnr H. apply bind_ok in H. destruct H as ([qs ret] & Ha & H). apply bind_ok in H. destruct H as (s2 & Hr & H). inversion H; subst; clear H.
  assert (V1 : QI (exL Ready ret none) [] (core_of (st_core s (with_queues (upd_task c1 (with_state t (Waiting 0))) qs)))).
  { qi_simpl. eapply QV_ext.
    - eapply QV_requeue; [exact V | exact Hf | reflexivity | reflexivity | reflexivity | exact Hpl | exact Hnr | reflexivity | cbn; discriminate | exact Ha].
    - intros x t0 _. unfold exL. destruct (tid_mem x ret); [reflexivity|]. unfold exR, none. destruct (tid_eqb x (t_id t)) eqn:E; [reflexivity|].
      apply tid_eqb_neq in E. symmetry. apply Hex. exact E. }
  eapply process_retracted_QI; eassumption.
Qed.

Lemma task_reject_QI s w id rv s' b :
  QI none [] (core_of s) -> task_reject s w id rv = Ok (s', b) -> QI none [] (core_of s').
Proof.
  intros V H. unfold task_reject in H.
  destruct (find_task (c_tasks (core_of s)) id) as [t|] eqn:Ef; [|inversion H; subst; exact V].
  pose proof (find_task_id _ _ _ Ef) as Hid. subst id.
  apply bind_ok in H. destruct H as (wk & _ & H). cbv zeta in H.
  apply bind_ok in H. destruct H as (rq & _ & H). apply bind_ok in H. destruct H as ([c1 cont] & Hr & H).
  set (wk1 := match rv with Some v => if nn_mem (t_rq t, v) (w_blocked wk) then wk else with_blocked wk (nn_insert (t_rq t, v) (w_blocked wk)) | None => wk end) in *.
  destruct (t_state t) as [|w1 rv1|w1|w1| | |] eqn:Est; try discriminate.
  - (* Assigned *)
    assert (Hs : qsame (core_of s) c1).
    { destruct (negb (N.eqb w w1)); [inversion Hr; repeat split|]. destruct rv as [v|]; [|inversion Hr; repeat split].
      destruct (N.eqb v rv1); [inv_binds Hr|]; inversion Hr; repeat split. }
    assert (Hc : cont = true).
    { destruct (negb (N.eqb w w1)); [inversion Hr; reflexivity|]. destruct rv as [v|]; [|inversion Hr; reflexivity].
      destruct (N.eqb v rv1); [inv_binds Hr|]; inversion Hr; reflexivity. }
    subst cont. pose proof (QI_same _ _ _ _ Hs V) as V1. destruct Hs as (T1 & _ & R1 & _).
    eapply (requeue_QI none s t c1); [exact V1 | rewrite T1; exact Ef | reflexivity | | | exact H].
    + rewrite Est. discriminate.
    + rewrite R1. eapply QV_no_redirect; [exact V | exact Ef | intros w0; congruence].
  - (* Prefilled *)
    apply bind_ok in Hr. destruct Hr as (wk' & _ & Hr). apply bind_ok in Hr. destruct Hr as (q & Hq & Hr).
    apply bind_ok in Hr. destruct Hr as (q' & Hq' & Hr). injection Hr as Ec1 Ecn. subst cont.
    assert (Hnr : find_redirect (c_redirects (core_of s)) (t_id t) = None) by (eapply QV_no_redirect; [exact V | exact Ef | intros w0; congruence]).
    cbn [c_queues upd_worker with_workers] in Hq. apply nth_queue_ok in Hq.
    eapply (requeue_QI (exU none (t_id t) Nowhere) s t c1); [| | apply exU_other | | | exact H]; subst c1.
    + unfold QI. cbn [c_tasks c_queues c_redirects c_rqs upd_worker with_workers with_queues].
      eapply QV_q_remove_prefilled; [exact V | exact Ef | exact Hq | exact Hq' | exact Hnr].
    + exact Ef.
    + unfold exp_place. rewrite exU_same. discriminate.
    + exact Hnr.
  - (* Retracting *)
    assert (Hc1 : c1 = upd_worker (core_of s) wk1) by (destruct (negb (N.eqb w w1)); inversion Hr; reflexivity).
    assert (V1 : QI none [] c1) by (subst c1; exact V).
    assert (T1 : c_tasks c1 = c_tasks (core_of s)) by (subst c1; reflexivity).
    assert (R1 : c_redirects c1 = c_redirects (core_of s)) by (subst c1; reflexivity).
    clear Hr. destruct cont.
    + destruct (find_redirect (c_redirects c1) (t_id t)) as [[target rvt]|] eqn:Er.
      * apply bind_ok in H. destruct H as (s1 & Hs1 & H). inversion H; subst s' b; clear H.
        rewrite (send_worker_core _ _ _ _ Hs1). rewrite <- T1 in Ef. clear Hc1. qi_simpl.
        eapply QV_redirected; [exact V1 | exact Ef | exact Er | reflexivity | reflexivity | reflexivity | reflexivity | discriminate].
      * eapply (requeue_QI none s t c1); [exact V1 | rewrite T1; exact Ef | reflexivity | | exact Er | exact H].
        unfold exp_place, none. rewrite Est. cbn. rewrite Er. discriminate.
    + inversion H; subst. exact V1.
Qed.

Lemma request_enabled_QI s w rq rv s' : QI none [] (core_of s) -> request_enabled s w rq rv = Ok s' -> QI none [] (core_of s').
Proof. unfold request_enabled. intros V H. inv_binds H. inversion H; subst. exact V. Qed.

Lemma retract_response_states_QI ids : forall c w acc c' acc',
  QI none [] c -> retract_response_states c w ids acc = (c', acc') -> QI none [] c'.
Proof.
  induction ids as [|id r IH]; cbn [retract_response_states]; intros c w acc c' acc' V H; [inversion H; subst; exact V|].
  destruct (find_task (c_tasks c) id) as [t|] eqn:Ef; [|eapply IH; eassumption].
  destruct (t_state t) as [| | |w1| | |] eqn:Est; try (eapply IH; eassumption).
  destruct (N.eqb w w1); [|eapply IH; eassumption].
  destruct (find_redirect (c_redirects c) id) as [[target rv]|] eqn:Er.
  - eapply IH; [|exact H]. qi_simpl.
    eapply QV_redirected; [exact V | exact Ef | exact Er | exact (find_task_id _ _ _ Ef) | reflexivity | reflexivity | reflexivity | discriminate].
  - eapply IH; [|exact H]. qi_simpl.
    eapply QV_task0; [exact V | exact Ef | exact (find_task_id _ _ _ Ef) | reflexivity | reflexivity | reflexivity | | |].
    + unfold exp_place, none. rewrite Est. cbn. rewrite Er. reflexivity.
    + intros v Hv. congruence.
    + cbn. discriminate.
Qed.

Lemma on_retract_response_QI s w ids s' : QI none [] (core_of s) -> on_retract_response s w ids = Ok s' -> QI none [] (core_of s').
Proof.
  unfold on_retract_response. intros V H. destruct (retract_response_states _ w ids []) as [c' groups] eqn:E.
  apply bind_ok in H. destruct H as (s2 & H & H2).
  assert (X2 : QI none [] (core_of s2)).
  { rewrite (send_redirected_core _ _ _ H). cbn. eapply retract_response_states_QI; eassumption. }
  destruct (retract_wakes _ _ _ _); inversion H2; subst s'; clear H2; [|exact X2].
  exact X2.
Qed.

(** * [task_failed] *)
Lemma task_failed_QI s w id k s' :
  HOK (hq_of s) -> CB s -> QI none [] (core_of s) -> task_failed s w id k = Ok s' -> QI none [] (core_of s').
Proof.
  intros Hok HC V H. unfold task_failed in H.
  destruct (find_task (c_tasks (core_of s)) id) as [t|] eqn:Ef; [|inversion H; subst; exact V].
  destruct (find_task_some _ _ _ Ef) as [Hin Hid0]. pose proof Hid0 as Hid. apply tid_eqb_eq in Hid.
  apply bind_ok in H. destruct H as (rq & _ & H). apply bind_ok in H. destruct H as (c1 & H1 & H).
  (* either nothing happened to a waiting task, or the task was released from its place *)
  assert (Hnf : t_state t <> Finished) by (intros E; exact (qv_fin _ _ _ _ _ _ V _ _ Ef E)).
  assert (X0 : (is_waiting t = true /\ c1 = core_of s) \/ q_released none [] (core_of s) id c1).
  { destruct (failed_release _ _ _ _ _ _ H1) as [Hrel | (-> & _ & _ & ws & Est)]; [exact (released_QI _ _ _ _ _ _ _ V Ef Hnf Hrel (fun X => X))|].
    (* placed as multi-node, request single-node: nothing is released; the queues do not see it *)
    right. eapply released_placed; [exact V | exact Ef | apply qsame_refl | rewrite Est; reflexivity | intros w0; congruence]. }
  assert (X1 : exists ex1, lax ex1 /\ QI ex1 [] c1 /\ c_tasks c1 = c_tasks (core_of s) /\
                 (is_waiting t = true \/ ex1 id = Some Nowhere) /\ (forall x, x <> id -> ex1 x = None)).
  { destruct X0 as [[Hw ->]|(V1 & T1 & _)].
    - exists none. split; [apply lax_none | split; [exact V | split; [reflexivity | split; [left; exact Hw | reflexivity]]]].
    - exists (exU none id Nowhere). split; [apply lax_exU, lax_none | split; [exact V1 | split; [exact T1|]]].
      split; [right; apply exU_same | intros x Hne; apply exU_other; exact Hne]. }
  destruct X1 as (ex1 & Hlax & V1 & Et & Hrelid & Hex1).
  assert (Ek : keys c1 = K s) by (unfold K, keys; rewrite Et; reflexivity).
  assert (Hs1 : CS c1) by (eapply CS_keys; [exact Ek | exact (cb_s _ HC)]).
  apply bind_ok in H. destruct H as (csm & Hcs & H).
  apply bind_ok in H. destruct H as (c2 & H2 & H).
  destruct (remove_waiting_consumers_shrinks _ _ _ Hs1 H2) as [Sh2 _].
  apply bind_ok in H. destruct H as ([c3 stt] & H3 & H).
  destruct (remove_task_shrinks _ _ _ _ (shr_sorted _ _ _ Sh2) H3) as [Sh3 _].
  apply bind_ok in H. destruct H as (u & _ & H).
  apply bind_ok in H. destruct H as ([s1 cancel_ids] & H4 & H).
  pose proof (shrinks_trans _ _ _ _ _ Sh2 Sh3) as Sh23. rewrite Ek in Sh23.
  destruct (process_task_failed_active (st_core s c3) id csm k s1 cancel_ids Hok H4) as (C4 & A4 & J4 & N4).
  unfold core_same in C4. cbn [core_of st_core with_core s_core fst] in C4.
  (* the invariant through the removals *)
  destruct (remove_waiting_consumers_QI _ _ _ _ _ Hlax V1 H2) as (V2 & S2 & N2 & _ & G2).
  assert (Hpre : forall t2, find_task (c_tasks c2) id = Some t2 -> is_waiting t2 = true \/
            (exp_place ex1 (c_redirects c2) id (t_state t2) = Nowhere /\ find_redirect (c_redirects c2) id = None)).
  { intros t2 Ht2. eapply nowhere_pre; [exact V2 | exact Ht2|].
    destruct (S2 _ _ Ht2) as (t0 & Ht0 & Hst). rewrite Et, Ef in Ht0. inversion Ht0; subst t0.
    destruct Hrelid as [Hw|Hn]; [left; unfold is_waiting in *; rewrite <- Hst; exact Hw | right; exact Hn]. }
  destruct (remove_task_QI ex1 [] [] _ _ _ _ Hlax V2 H3 Hpre) as (V3 & S3 & G3 & N3 & _); [auto|].
  assert (V3' : QI none [] (core_of s1)).
  { rewrite C4. unfold QI in *. eapply QV_ext; [exact V3|]. intros x t0 Hx. symmetry. apply Hex1. intros ->. congruence. }
  destruct cancel_ids as [|c0 cr] eqn:Ecid; [inversion H; subst; exact V3'|].
  rewrite <- Ecid in *. assert (Hne : cancel_ids <> []) by (rewrite Ecid; discriminate). clear Ecid.
  assert (Ks1 : K s1 = keys c3) by (unfold K; rewrite C4; reflexivity).
  assert (Hd3 : KD (K s1)) by (rewrite Ks1; eapply shrinks_KD; [exact Sh23 | exact (cb_d _ HC)]).
  eapply on_cancel_tasks_QI; [exact V3' | exact Hd3 | | exact H].
  intros x t0 y Hx Hy Hf. left. rewrite C4 in Hx.
  apply N4; [exact Hne | rewrite Hf; apply J4; exact Hy | | | ].
  - rewrite (active_same s (st_core s c3)) by (intros; reflexivity). apply (cb_b _ HC). apply find_task_present.
    destruct (S3 _ _ Hx) as (t1 & Hx1 & _). destruct (S2 _ _ Hx1) as (t2 & Hx2 & _). rewrite Et in Hx2. eauto.
  - intros Hc. rewrite (N3 _ (G2 _ Hc)) in Hx. discriminate.
  - intros ->. congruence.
Qed.

(** * [on_task_update] *)
(** The queue invariant together with the job-layer invariants that its proof for [task_failed] needs. *)
Definition QP (s : st) : Prop := HOK (hq_of s) /\ CB s /\ QI none [] (core_of s).

Lemma apply_one_QP s w u s' n : apply_one s w u = Ok (s', n) -> QP s -> QP s'.
Proof.
  intros Hu (Hok & HC & V).
  assert (H1 : apply_updates s w [u] false = Ok (s', false || n)) by (rewrite apply_updates_cons, Hu; reflexivity).
  split; [exact (apply_updates_ok _ _ _ _ _ _ Hok H1) | split; [exact (apply_updates_CB _ _ _ _ _ _ Hok HC H1)|]].
  destruct u; cbn [apply_one] in Hu.
  - eapply (task_finished_QI s); eassumption.
  - apply bind_ok in Hu. destruct Hu as (sx & Hf & Hu). inversion Hu; subst. eapply (task_failed_QI s); eassumption.
  - eapply (task_running_QI s); eassumption.
  - eapply (task_running_QI s); eassumption.
  - eapply (task_reject_QI s); eassumption.
  - apply bind_ok in Hu. destruct Hu as (sx & Hf & Hu). inversion Hu; subst. eapply (request_enabled_QI s); eassumption.
Qed.

Lemma apply_updates_QI us : forall s w need s' need',
  HOK (hq_of s) -> CB s -> QI none [] (core_of s) -> apply_updates s w us need = Ok (s', need') -> QI none [] (core_of s').
Proof.
  intros s w need s' need' Hok HC V H.
  apply (apply_updates_rel (fun a b => QP a -> QP b) (fun _ p => p) (fun _ _ _ f g p => g (f p)) apply_one_QP _ _ _ _ _ _ H (conj Hok (conj HC V))).
Qed.

Lemma on_task_update_QI s w us s' :
  HOK (hq_of s) -> CB s -> QI none [] (core_of s) -> on_task_update s w us = Ok s' -> QI none [] (core_of s').
Proof.
  intros Hok HC V H. unfold on_task_update in H. apply bind_ok in H. destruct H as ([s1 need] & Hu & H).
  pose proof (apply_updates_QI _ _ _ _ _ _ Hok HC V Hu) as V1.
  destruct (need && _); inversion H; subst; exact V1.
Qed.
