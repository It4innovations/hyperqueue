(** C02, the "runnable work is not forgotten" half: EXECUTABLE DEFINITIONS.

    The server's scheduler sleeps until [ask_for_scheduling] sets the flag [c_flag]
    (comm.rs: [need_scheduling] + [scheduler_wakeup.notify_one()]; scheduler/main.rs
    [scheduler_loop] does nothing while the flag is off) and a scheduling round clears it.  So
    "runnable work is not forgotten" = "while the flag is off, nothing the scheduler would place is
    lying around".  This file says, executably, what "the scheduler would place" means:

    - [sn_fits c rq r w]: a ready task of the single-node class [rq] could be placed on worker [w]
      NOW.  It mirrors the filter under which scheduler/solver.rs creates the placement variable
      of (worker, class, variant 0): worker in single-node mode ([sn_assignment().is_some()]),
      [!is_request_blocked], [have_immediate_resources_for_rq] (free amounts cover the request);
      worker time limits are not part of the cluster model; a stopping worker is excluded.
    - [mn_free c w] = the real [Worker::is_free] AFTER the repair of F28: nothing assigned, nothing
      prefilled, not stopping, and no unresolved retraction ([retracting_tasks == 0], in the model
      the derived [retracting_from] of RetractFree.v).
    - [mn_fits c r]: a multi-node class needing [rq_nodes r] workers: some group has that many
      free workers (solver.rs creates the variables of a multi-node class for the free workers
      and chunks the selected ones group by group).
    - [class_fits c i]: class [i] fits somewhere now.
    - [placeable c]: some class whose ready queue holds a task of the TOP READY PRIORITY
      ([queues_top_priority]) fits now.

    Why the top priority only.  The objective of the MILP maximises placed tasks, so an optimal
    answer never leaves a task unplaced that it may place and that still fits afterwards - but
    the priority cuts of batches.rs / solver.rs forbid placing a LOWER-priority class on a worker
    that a waiting higher-priority class could use (property C15's exception).  This is real:
    /verif/build/wip-progress/wake2.out, second SCHED: HiGHS, optimal, leaves the single-node task
    2.0 (priority 0) unplaced although worker 1 has the free cpu, because the multi-node task 3.0
    (priority 5) waits for that worker.  The first (= top) priority level of every queue gets no
    cut in [create_task_batches] (no batch has a positive size yet when it is processed), its
    size limit [limit] is at least the number of tasks that fit now, and a reservation variable
    'R' weighs less than any placement variable.  Hence the contract HiGHS satisfies when it
    solves to optimality is: after the round no class with a TOP-priority ready task fits.

    - [sched_complete s sol]: that contract for one answer, on the post-state of [OpSched sol]
      (or the flag is set again - it never is, a round ends by clearing it).
    - [busy c]: the core holds a task in flight (assigned / running / being redirected): its
      worker owes the server a message that sets the flag (finished, failed, rejected, lost).
    - [wake_inv s]: flag on, or nothing placeable, or something in flight. *)
From HQ Require Import Base.Prelude Cluster.Types Cluster.Core Cluster.Reactor Cluster.Worker Cluster.Server Cluster.Sys Cluster.RetractFree.
From Coq Require Import ZArith.
Local Open Scope N_scope.

Definition sn_fits (rq : N) (r : rqdef) (w : sworker) : bool :=
  match w_assign w with
  | Sn _ _ f => negb (w_stopping w) && negb (nn_mem (rq, 0) (w_blocked w)) && res_fits f (rq_res r)
  | Mn _ _ => false
  end.

Definition mn_free (c : core) (w : sworker) : bool :=
  worker_is_free w && negb (retracting_from c (w_id w)).

Definition free_in_group (c : core) (g : N) : N :=
  N.of_nat (length (filter (fun w => N.eqb (w_group w) g && mn_free c w) (c_workers c))).

Definition mn_fits (c : core) (r : rqdef) : bool :=
  existsb (fun w => N.leb (rq_nodes r) (free_in_group c (w_group w))) (c_workers c).

Definition class_fits (c : core) (i : nat) : bool :=
  match nth_error (c_rqs c) i with
  | Some r => if rq_is_mn r then mn_fits c r else existsb (sn_fits (N.of_nat i) r) (c_workers c)
  | None => false
  end.

Definition indexed {A} (l : list A) : list (nat * A) := combine (seq 0 (length l)) l.

Definition at_top (top : Z) (q : queue) : bool :=
  match q_top_priority q with Some p => Z.eqb p top | None => false end.

Definition placeable (c : core) : bool :=
  match queues_top_priority (c_queues c) with
  | None => false
  | Some top => existsb (fun iq => at_top top (snd iq) && class_fits c (fst iq)) (indexed (c_queues c))
  end.

(** Any ready class, whatever its priority (NOT what an optimal round guarantees, see above). *)
Definition placeable_any (c : core) : bool :=
  existsb (fun iq => match q_ready (snd iq) with [] => false | _ => class_fits c (fst iq) end) (indexed (c_queues c)).

Definition sched_complete (s : sys) (sol : solution) : bool :=
  match step s (OpSched sol) with
  | Ok (s', _) => negb (placeable (s_core s')) || c_flag (s_core s')
  | _ => true
  end.

Definition op_complete (s : sys) (o : op) : bool :=
  match o with OpSched sol => sched_complete s sol | _ => true end.

Fixpoint ops_complete (s : sys) (ops : list op) : bool :=
  match ops with
  | [] => true
  | o :: r => op_complete s o && match step s o with Ok (s1, _) => ops_complete s1 r | _ => true end
  end.

Definition task_busy (c : core) (t : task) : bool :=
  match t_state t with
  | Waiting _ | Prefilled _ | Finished => false
  | Retracting _ => match find_redirect (c_redirects c) (t_id t) with Some _ => true | None => false end
  | Assigned _ _ | Running _ _ | RunningMN _ => true
  end.
Definition busy (c : core) : bool := existsb (task_busy c) (c_tasks c).

Definition wake_inv (s : sys) : bool :=
  c_flag (s_core s) || negb (placeable (s_core s)) || busy (s_core s).

(** The rest predicate of the monitor `task-in-limbo-at-rest`, extended: at rest nothing the
    scheduler would place is left.  ([at_restb] of RestU1.v is the "at rest" part.) *)
Definition rest_no_runnable (c : core) : bool := negb (placeable c).

Lemma sched_complete_post s sol s' outs :
  step s (OpSched sol) = Ok (s', outs) -> sched_complete s sol = true -> wake_inv s' = true.
Proof.
  unfold sched_complete, wake_inv. intros ->. intros H.
  apply orb_true_iff in H. destruct H as [H | H]; rewrite H; [rewrite orb_true_r | ]; reflexivity.
Qed.

Lemma wake_inv_flag s : c_flag (s_core s) = true -> wake_inv s = true.
Proof. unfold wake_inv. intros ->. reflexivity. Qed.

Lemma wake_inv_same_core s s' : s_core s' = s_core s -> wake_inv s = true -> wake_inv s' = true.
Proof. unfold wake_inv. intros ->. exact (fun H => H). Qed.

Lemma wake_inv_rest s :
  wake_inv s = true -> c_flag (s_core s) = false -> busy (s_core s) = false -> placeable (s_core s) = false.
Proof.
  unfold wake_inv. intros H Hf Hb. rewrite Hf, Hb, orb_false_r in H. cbn [orb] in H. apply negb_true_iff in H. exact H.
Qed.
