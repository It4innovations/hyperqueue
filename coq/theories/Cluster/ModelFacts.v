(** Facts about the data structures of the model: task ids and their order, membership and sorted
    insertion in lists of ids, the association lists (tasks, processes, jobs, redirects, queues,
    worker-side tables) with their find / set / del operations, and what a few primitives of the
    model leave alone.  Nothing here mentions an invariant of the system; the files of invariants
    start from these.

    The invariants say "sorted" with their own names ([tlt], [tsorted], [rsorted], ...), all of which
    unfold to [StronglySorted] over [tid_ltb a b = true]; the facts here are stated in that
    unfolded form so that each of those files can use them as they are. *)
From HQ Require Import Base.Prelude Cluster.Types Cluster.Core Cluster.Reactor Cluster.Worker Cluster.Server Cluster.Sys.
From Coq Require Import ZArith Lia Sorting.Sorted.
Local Open Scope N_scope.

(** * Small list lemmas *)
Lemma NoDup_snoc {A} (l : list A) x : NoDup l -> ~ In x l -> NoDup (l ++ [x]).
Proof. intros Hn Hx. apply (NoDup_Add (Add_app x l [])). rewrite app_nil_r. auto. Qed.

Lemma forallb_ext {A} (f g : A -> bool) l : (forall x, f x = g x) -> forallb f l = forallb g l.
Proof. intros E. induction l as [|h t IH]; [reflexivity|]. cbn [forallb]. rewrite E, IH. reflexivity. Qed.

Lemma n_mem_In x l : n_mem x l = true <-> In x l.
Proof.
  induction l as [|h t IH]; cbn [n_mem In]; [split; [discriminate | intros []]|].
  rewrite orb_true_iff, N.eqb_eq, IH. split; intros [H|H]; auto.
Qed.

Lemma take_n_in {A} n : forall (l : list A) x, In x (fst (take_n n l)) -> In x l.
Proof.
  induction n as [|k IH]; intros l x H; [destruct l; destruct H|].
  destruct l as [|h t]; [destruct H|]. cbn [take_n] in H. destruct (take_n k t) as [a b] eqn:E. cbn [fst] in H.
  destruct H as [->|H]; [left; reflexivity|]. right. apply IH. rewrite E. exact H.
Qed.

(** * Task ids: equality test and order *)
Lemma tid_eqb_eq a b : tid_eqb a b = true <-> a = b.
Proof.
  unfold tid_eqb. destruct a as [a1 a2], b as [b1 b2]. cbn. rewrite andb_true_iff, !N.eqb_eq.
  split; [intros [-> ->]; reflexivity | intros H; inversion H; auto].
Qed.
Lemma tid_eqb_refl t : tid_eqb t t = true.
Proof. unfold tid_eqb. rewrite !N.eqb_refl. reflexivity. Qed.
Lemma tid_eqb_neq a b : tid_eqb a b = false <-> a <> b.
Proof. rewrite <- tid_eqb_eq. destruct (tid_eqb a b); split; congruence. Qed.
Lemma tid_eqb_sym a b : tid_eqb a b = tid_eqb b a.
Proof. unfold tid_eqb. rewrite (N.eqb_sym (fst a)), (N.eqb_sym (snd a)). reflexivity. Qed.

(** [tid_ltb] is the lexicographic order, a strict total order.  The files of invariants write
    [tlt a b] for [tid_ltb a b = true]. *)
Lemma tlt_spec a b : tid_ltb a b = true <-> (fst a < fst b \/ (fst a = fst b /\ snd a < snd b)).
Proof. unfold tid_ltb. rewrite orb_true_iff, andb_true_iff, !N.ltb_lt, N.eqb_eq. reflexivity. Qed.
Lemma tlt_trans a b c : tid_ltb a b = true -> tid_ltb b c = true -> tid_ltb a c = true.
Proof. rewrite !tlt_spec. lia. Qed.
Lemma tlt_irrefl a : ~ tid_ltb a a = true.
Proof. rewrite tlt_spec. lia. Qed.
Lemma tlt_total a b : tid_eqb a b = false -> tid_ltb a b = false -> tid_ltb b a = true.
Proof.
  intros E L. apply tid_eqb_neq in E. rewrite tlt_spec.
  assert (~ tid_ltb a b = true) as NL by congruence. rewrite tlt_spec in NL.
  destruct a as [a1 a2], b as [b1 b2]. cbn in *.
  destruct (N.eq_dec a1 b1) as [->|]; [|lia]. destruct (N.eq_dec a2 b2) as [->|]; [congruence | lia].
Qed.

(** * Lists of task ids: [tid_mem], [tid_insert], [tid_insert_all] *)
Lemma tid_mem_In x l : tid_mem x l = true <-> In x l.
Proof.
  induction l as [|h t IH]; cbn [tid_mem In]; [split; [discriminate | intros []]|].
  rewrite orb_true_iff, IH, tid_eqb_eq. split; intros [H|H]; auto.
Qed.
Lemma tid_mem_nIn x l : tid_mem x l = false <-> ~ In x l.
Proof. rewrite <- tid_mem_In. destruct (tid_mem x l); split; congruence. Qed.
Lemma tid_mem_app x a b : tid_mem x (a ++ b) = tid_mem x a || tid_mem x b.
Proof. induction a as [|h t IH]; cbn [tid_mem app]; [reflexivity|]. rewrite IH, orb_assoc. reflexivity. Qed.

Lemma tid_insert_in x l y : In y (tid_insert x l) -> y = x \/ In y l.
Proof.
  induction l as [|h t IH]; cbn [tid_insert]; [intros [H|[]]; auto|].
  destruct (tid_eqb x h); [auto|]. destruct (tid_ltb x h); [intros [H|H]; auto|].
  intros [H|H]; [right; left; exact H|]. destruct (IH H); [auto | right; right; assumption].
Qed.
Lemma tid_insert_keeps x l y : In y l -> In y (tid_insert x l).
Proof.
  induction l as [|h t IH]; cbn [tid_insert]; [intros []|].
  destruct (tid_eqb x h); [auto|]. destruct (tid_ltb x h); [intros H; right; exact H|].
  intros [H|H]; [left; exact H | right; apply IH; exact H].
Qed.
Lemma tid_insert_has x l : In x (tid_insert x l).
Proof.
  induction l as [|h t IH]; cbn [tid_insert]; [left; reflexivity|].
  destruct (tid_eqb x h) eqn:E; [apply tid_eqb_eq in E; subst; left; reflexivity|].
  destruct (tid_ltb x h); [left; reflexivity | right; exact IH].
Qed.

Lemma tid_insert_all_in xs : forall l y, In y (tid_insert_all xs l) -> In y xs \/ In y l.
Proof.
  unfold tid_insert_all. induction xs as [|x r IH]; cbn [fold_left]; intros l y H; [auto|].
  destruct (IH _ _ H) as [H1|H1]; [left; right; exact H1|].
  destruct (tid_insert_in _ _ _ H1) as [->|H2]; [left; left; reflexivity | right; exact H2].
Qed.
Lemma tid_insert_all_keeps xs : forall l y, In y l -> In y (tid_insert_all xs l).
Proof.
  unfold tid_insert_all. induction xs as [|x r IH]; cbn [fold_left]; intros l y H; [exact H|].
  apply IH. apply tid_insert_keeps. exact H.
Qed.
Lemma tid_insert_all_iff xs : forall l y, In y (tid_insert_all xs l) <-> In y xs \/ In y l.
Proof.
  intros l y. split; [apply tid_insert_all_in|].
  revert l. unfold tid_insert_all. induction xs as [|x r IH]; cbn [fold_left In]; intros l [H|H]; try contradiction; try exact H.
  - destruct H as [<-|H]; [|apply IH; left; exact H]. apply IH. right. apply tid_insert_has.
  - apply IH. right. apply tid_insert_keeps. exact H.
Qed.

Lemma perm_of_set_mem order ts x : perm_of_set order ts = true -> In x order -> tid_mem x ts = true.
Proof.
  unfold perm_of_set. intros H Hx. apply andb_true_iff in H. destruct H as [H _]. apply andb_true_iff in H. destruct H as [_ H].
  rewrite forallb_forall in H. apply H. exact Hx.
Qed.

(** * The task table: [find_task], [set_task], [del_task] *)
Lemma find_task_some ts id t : find_task ts id = Some t -> In t ts /\ t_id t = id.
Proof.
  induction ts as [|h r IH]; cbn [find_task]; [discriminate|].
  destruct (tid_eqb id (t_id h)) eqn:E.
  - intros H; inversion H; subst. apply tid_eqb_eq in E. split; [left; reflexivity | symmetry; exact E].
  - intros H. destruct (IH H) as [H1 H2]. split; [right; exact H1 | exact H2].
Qed.

Lemma find_task_none ts id : find_task ts id = None <-> ~ In id (map t_id ts).
Proof.
  induction ts as [|h r IH]; cbn [find_task map]; [split; auto|].
  destruct (tid_eqb id (t_id h)) eqn:E.
  - apply tid_eqb_eq in E. split; [discriminate | intros H; exfalso; apply H; left; auto].
  - apply tid_eqb_neq in E. rewrite IH. split; [intros H [X|X]; [congruence | auto] | intros H X; apply H; right; exact X].
Qed.

Lemma get_task_find ts id t : get_task ts id = Ok t -> find_task ts id = Some t.
Proof. unfold get_task. destruct (find_task ts id); intros H; inversion H; reflexivity. Qed.

Lemma find_set_task ts x id : find_task (set_task ts x) id = if tid_eqb id (t_id x) then Some x else find_task ts id.
Proof.
  induction ts as [|h r IH]; cbn [set_task find_task]; [reflexivity|].
  destruct (tid_eqb (t_id x) (t_id h)) eqn:E1.
  - apply tid_eqb_eq in E1. cbn [find_task]. rewrite <- E1. destruct (tid_eqb id (t_id x)); reflexivity.
  - destruct (tid_ltb (t_id x) (t_id h)); cbn [find_task]; [reflexivity|].
    destruct (tid_eqb id (t_id h)) eqn:E2.
    + apply tid_eqb_eq in E2. subst id. rewrite tid_eqb_sym, E1. reflexivity.
    + exact IH.
Qed.

Lemma set_task_in ts x t : In t (set_task ts x) -> t = x \/ In t ts.
Proof.
  induction ts as [|h r IH]; cbn [set_task In]; [intros [H|[]]; auto|].
  destruct (tid_eqb (t_id x) (t_id h)); cbn [In]; [intros [H|H]; auto|].
  destruct (tid_ltb (t_id x) (t_id h)); cbn [In]; [intros [H|[H|H]]; auto|].
  intros [H|H]; [auto|]. destruct (IH H); auto.
Qed.

Lemma del_task_in ts id t : In t (del_task ts id) -> In t ts.
Proof.
  induction ts as [|h r IH]; cbn [del_task In]; [auto|].
  destruct (tid_eqb id (t_id h)); [auto|]. cbn [In]. intros [H|H]; auto.
Qed.

Lemma set_task_ids_in ts x y : In y (map t_id (set_task ts x)) -> y = t_id x \/ In y (map t_id ts).
Proof.
  induction ts as [|h r IH]; cbn [set_task map In]; [intros [H|[]]; auto|].
  destruct (tid_eqb (t_id x) (t_id h)); cbn [map In]; [intros [H|H]; auto|].
  destruct (tid_ltb (t_id x) (t_id h)); cbn [map In]; [intros [H|[H|H]]; auto|].
  intros [H|H]; [auto|]. destruct (IH H); auto.
Qed.

Lemma del_task_ids_in ts x y : In y (map t_id (del_task ts x)) -> In y (map t_id ts).
Proof.
  induction ts as [|h r IH]; cbn [del_task map In]; [auto|].
  destruct (tid_eqb x (t_id h)); [intros H; right; exact H|]. cbn [map In]. intros [H|H]; auto.
Qed.

(** The task table is kept sorted by id, so an id occurs once. *)
Lemma set_task_sorted ts x :
  StronglySorted (fun a b => tid_ltb a b = true) (map t_id ts) -> StronglySorted (fun a b => tid_ltb a b = true) (map t_id (set_task ts x)).
Proof.
  induction ts as [|h r IH]; cbn [set_task map]; intros Hs; [constructor; constructor|].
  inversion Hs as [|? ? Hs' Hall]; subst.
  destruct (tid_eqb (t_id x) (t_id h)) eqn:E1.
  - apply tid_eqb_eq in E1. cbn [map]. rewrite E1. constructor; assumption.
  - destruct (tid_ltb (t_id x) (t_id h)) eqn:E2; cbn [map].
    + constructor; [exact Hs|]. constructor; [exact E2|].
      rewrite Forall_forall in *. intros y Hy. eapply tlt_trans; [exact E2 | apply Hall; exact Hy].
    + constructor; [apply IH; exact Hs'|]. rewrite Forall_forall in *. intros y Hy.
      destruct (set_task_ids_in _ _ _ Hy) as [->|Hy']; [|apply Hall; exact Hy']. apply tlt_total; assumption.
Qed.

Lemma del_task_sorted ts x :
  StronglySorted (fun a b => tid_ltb a b = true) (map t_id ts) -> StronglySorted (fun a b => tid_ltb a b = true) (map t_id (del_task ts x)).
Proof.
  induction ts as [|h r IH]; cbn [del_task map]; intros Hs; [constructor|].
  inversion Hs as [|? ? Hs' Hall]; subst. destruct (tid_eqb x (t_id h)); [exact Hs'|].
  cbn [map]. constructor; [apply IH; exact Hs'|]. rewrite Forall_forall in *. intros y Hy. apply Hall. eapply del_task_ids_in; exact Hy.
Qed.

Lemma in_find_task ts t : StronglySorted (fun a b => tid_ltb a b = true) (map t_id ts) -> In t ts -> find_task ts (t_id t) = Some t.
Proof.
  induction ts as [|h r IH]; cbn [find_task map]; intros Hs Hin; [destruct Hin|].
  inversion Hs as [|? ? Hs' Hall]; subst. destruct Hin as [->|Hin]; [rewrite tid_eqb_refl; reflexivity|].
  destruct (tid_eqb (t_id t) (t_id h)) eqn:E; [|apply IH; assumption].
  apply tid_eqb_eq in E. rewrite Forall_forall in Hall. specialize (Hall (t_id t) (in_map t_id _ _ Hin)).
  rewrite E in Hall. exfalso. exact (tlt_irrefl _ Hall).
Qed.

Lemma find_del_task ts x id :
  StronglySorted (fun a b => tid_ltb a b = true) (map t_id ts) -> find_task (del_task ts x) id = if tid_eqb id x then None else find_task ts id.
Proof.
  induction ts as [|h r IH]; cbn [del_task find_task map]; intros Hs; [destruct (tid_eqb id x); reflexivity|].
  inversion Hs as [|? ? Hs' Hall]; subst.
  destruct (tid_eqb x (t_id h)) eqn:E1.
  - apply tid_eqb_eq in E1. subst x. destruct (tid_eqb id (t_id h)) eqn:E2; [|reflexivity].
    apply tid_eqb_eq in E2. subst id. apply find_task_none. intros Hin. rewrite Forall_forall in Hall.
    exact (tlt_irrefl _ (Hall _ Hin)).
  - cbn [find_task]. destruct (tid_eqb id (t_id h)) eqn:E2.
    + apply tid_eqb_eq in E2. subst id. rewrite tid_eqb_sym, E1. reflexivity.
    + apply IH. exact Hs'.
Qed.

Lemma set_task_in_same ts x t :
  StronglySorted (fun a b => tid_ltb a b = true) (map t_id ts) -> In t (set_task ts x) -> t_id t = t_id x -> t = x.
Proof.
  induction ts as [|h r IH]; cbn [set_task map]; intros Hs Hin Ei; [destruct Hin as [H|[]]; auto|].
  inversion Hs as [|? ? Hs' Hall]; subst. rewrite Forall_forall in Hall.
  destruct (tid_eqb (t_id x) (t_id h)) eqn:E.
  - apply tid_eqb_eq in E. destruct Hin as [H|H]; [auto|]. exfalso.
    specialize (Hall _ (in_map t_id _ _ H)). rewrite Ei, E in Hall. exact (tlt_irrefl _ Hall).
  - destruct (tid_ltb (t_id x) (t_id h)) eqn:L.
    + destruct Hin as [H|[H|H]]; [auto | |]; exfalso.
      * subst t. rewrite Ei in L. exact (tlt_irrefl _ L).
      * specialize (Hall _ (in_map t_id _ _ H)). rewrite Ei in Hall. exact (tlt_irrefl _ (tlt_trans _ _ _ L Hall)).
    + destruct Hin as [H|H]; [|apply IH; assumption]. exfalso. subst t. rewrite Ei, tid_eqb_refl in E. discriminate.
Qed.

(** Removing a consumer edits consumer lists only: every task of the result stands for a task of the
    input with the same id, state and instance. *)
Lemma remove_consumer_from_in deps : forall ts cid ts', remove_consumer_from ts deps cid = Ok ts' ->
  forall t', In t' ts' -> exists t, In t ts /\ t_id t = t_id t' /\ t_state t = t_state t' /\ t_inst t = t_inst t'.
Proof.
  induction deps as [|d r IH]; cbn [remove_consumer_from]; intros ts cid ts' H t' Hin; [inversion H; subst; eauto|].
  destruct (find_task ts d) as [input|] eqn:Ef; [|eapply IH; eassumption].
  destruct (tid_mem cid (t_consumers input)); [|discriminate].
  destruct (IH _ _ _ H t' Hin) as (t1 & H1 & Ei & Es & En).
  destruct (set_task_in _ _ _ H1) as [->|Hin1]; [|eauto].
  exists input. split; [apply (find_task_some _ _ _ Ef) | auto].
Qed.

Lemma ctasks_of_ok c l : (forall a, In a l -> find_task (c_tasks c) (fst a) <> None) -> exists r, ctasks_of c l = Ok r.
Proof.
  induction l as [|[id rv] r IH]; cbn [ctasks_of]; intros H; [eexists; reflexivity|].
  unfold get_task. destruct (find_task (c_tasks c) id) as [t|] eqn:E; [|exfalso; exact (H (id, rv) (or_introl eq_refl) E)].
  cbn [bind]. destruct IH as (r0 & E0); [intros y Hy; apply H; right; exact Hy|]. rewrite E0. cbn [bind]. eexists; reflexivity.
Qed.

(** * The process table: [find_proc], [set_proc] *)
Lemma find_proc_some ps w p : find_proc ps w = Some p -> In p ps /\ p_id p = w.
Proof.
  induction ps as [|h r IH]; cbn [find_proc]; [discriminate|].
  destruct (N.eqb w (p_id h)) eqn:E.
  - intros H; inversion H; subst. apply N.eqb_eq in E. split; [left; reflexivity | symmetry; exact E].
  - intros H. destruct (IH H). split; [right; assumption | assumption].
Qed.

Lemma find_set_proc ps x w : find_proc (set_proc ps x) w = if N.eqb w (p_id x) then Some x else find_proc ps w.
Proof.
  induction ps as [|h r IH]; cbn [set_proc find_proc]; [reflexivity|].
  destruct (N.eqb (p_id x) (p_id h)) eqn:E1.
  - apply N.eqb_eq in E1. cbn [find_proc]. rewrite <- E1. destruct (N.eqb w (p_id x)); reflexivity.
  - destruct (N.ltb (p_id x) (p_id h)); cbn [find_proc]; [reflexivity|].
    destruct (N.eqb w (p_id h)) eqn:E2.
    + apply N.eqb_eq in E2. subst w. rewrite N.eqb_sym, E1. reflexivity.
    + exact IH.
Qed.

(** * The worker table: [find_worker] *)
Lemma find_worker_some ws w wk : find_worker ws w = Some wk -> In wk ws /\ w_id wk = w.
Proof.
  induction ws as [|h r IH]; cbn [find_worker]; [discriminate|].
  destruct (N.eqb w (w_id h)) eqn:E.
  - intros H; inversion H; subst. apply N.eqb_eq in E. split; [left; reflexivity | symmetry; exact E].
  - intros H. destruct (IH H). split; [right; assumption | assumption].
Qed.

(** * The job table: [find_job], [set_job] *)
Lemma find_job_id js id j : find_job js id = Some j -> j_id j = id.
Proof.
  induction js as [|h r IH]; cbn [find_job]; [discriminate|].
  destruct (N.eqb id (j_id h)) eqn:E; intros H; [inversion H; subst; apply N.eqb_eq in E; auto | auto].
Qed.

Lemma find_job_set js x id : find_job (set_job js x) id = if N.eqb id (j_id x) then Some x else find_job js id.
Proof.
  induction js as [|h r IH]; cbn [set_job find_job]; [reflexivity|].
  destruct (N.eqb (j_id x) (j_id h)) eqn:E1.
  - apply N.eqb_eq in E1. cbn [find_job]. rewrite <- E1. destruct (N.eqb id (j_id x)); reflexivity.
  - destruct (N.ltb (j_id x) (j_id h)); cbn [find_job]; [reflexivity|].
    destruct (N.eqb id (j_id h)) eqn:E2; [apply N.eqb_eq in E2; subst id; rewrite N.eqb_sym, E1; reflexivity | apply IH].
Qed.

(** * The redirect table: [find_redirect], [set_redirect], [del_redirect] *)
Lemma find_redirect_none rs x : ~ In x (map fst rs) -> find_redirect rs x = None.
Proof.
  induction rs as [|[k v] r IH]; cbn [find_redirect map fst In]; [reflexivity|]. intros Hn.
  destruct (tid_eqb x k) eqn:E; [apply tid_eqb_eq in E; exfalso; apply Hn; left; auto|].
  apply IH. intros X. apply Hn. right. exact X.
Qed.

Lemma find_set_redirect rs t v x : find_redirect (set_redirect rs t v) x = if tid_eqb x t then Some v else find_redirect rs x.
Proof.
  induction rs as [|[k v0] r IH]; cbn [set_redirect find_redirect]; [reflexivity|].
  destruct (tid_eqb t k) eqn:E1.
  - apply tid_eqb_eq in E1. subst k. cbn [find_redirect]. destruct (tid_eqb x t); reflexivity.
  - destruct (tid_ltb t k); cbn [find_redirect]; [reflexivity|].
    destruct (tid_eqb x k) eqn:E2.
    + apply tid_eqb_eq in E2. subst x. rewrite tid_eqb_sym, E1. reflexivity.
    + exact IH.
Qed.

Lemma set_redirect_keys rs t v y : In y (map fst (set_redirect rs t v)) -> y = t \/ In y (map fst rs).
Proof.
  induction rs as [|[k v0] r IH]; cbn [set_redirect map fst In]; [intros [H|[]]; auto|].
  destruct (tid_eqb t k) eqn:E; cbn [map fst In]; [intros [H|H]; auto|].
  destruct (tid_ltb t k); cbn [map fst In]; [intros [H|[H|H]]; auto|].
  intros [H|H]; [auto|]. destruct (IH H); auto.
Qed.

Lemma del_redirect_incl rs t y : In y (map fst (del_redirect rs t)) -> In y (map fst rs).
Proof.
  induction rs as [|[k v] r IH]; cbn [del_redirect map fst In]; [auto|].
  destruct (tid_eqb t k); [intros H; right; exact H|]. cbn [map fst In]. intros [H|H]; auto.
Qed.

(** The redirect table is sorted by id as well. *)
Lemma set_redirect_sorted rs t v :
  StronglySorted (fun a b => tid_ltb a b = true) (map fst rs) -> StronglySorted (fun a b => tid_ltb a b = true) (map fst (set_redirect rs t v)).
Proof.
  induction rs as [|[k v0] r IH]; cbn [set_redirect map fst]; intros Hs; [constructor; constructor|].
  inversion Hs as [|? ? Hs' Hall]; subst.
  destruct (tid_eqb t k) eqn:E1.
  - apply tid_eqb_eq in E1. subst k. cbn [map fst]. constructor; assumption.
  - destruct (tid_ltb t k) eqn:E2; cbn [map fst].
    + constructor; [exact Hs|]. constructor; [exact E2|].
      rewrite Forall_forall in *. intros y Hy. eapply tlt_trans; [exact E2 | apply Hall; exact Hy].
    + constructor; [apply IH; exact Hs'|]. rewrite Forall_forall in *. intros y Hy.
      destruct (set_redirect_keys _ _ _ _ Hy) as [->|Hy']; [|apply Hall; exact Hy'].
      apply tlt_total; assumption.
Qed.

Lemma del_redirect_sorted rs t :
  StronglySorted (fun a b => tid_ltb a b = true) (map fst rs) -> StronglySorted (fun a b => tid_ltb a b = true) (map fst (del_redirect rs t)).
Proof.
  induction rs as [|[k v] r IH]; cbn [del_redirect map fst]; intros Hs; [constructor|].
  inversion Hs as [|? ? Hs' Hall]; subst. destruct (tid_eqb t k); [exact Hs'|].
  cbn [map fst]. constructor; [apply IH; exact Hs'|]. rewrite Forall_forall in *. intros y Hy. apply Hall.
  eapply del_redirect_incl; exact Hy.
Qed.

Lemma find_del_redirect rs t x :
  StronglySorted (fun a b => tid_ltb a b = true) (map fst rs) -> find_redirect (del_redirect rs t) x = if tid_eqb x t then None else find_redirect rs x.
Proof.
  induction rs as [|[k v] r IH]; cbn [del_redirect find_redirect map fst]; intros Hs; [destruct (tid_eqb x t); reflexivity|].
  inversion Hs as [|? ? Hs' Hall]; subst.
  destruct (tid_eqb t k) eqn:E1.
  - apply tid_eqb_eq in E1. subst k. destruct (tid_eqb x t) eqn:E2; [|reflexivity].
    apply tid_eqb_eq in E2. subst x. apply find_redirect_none. intros Hin. rewrite Forall_forall in Hall.
    exact (tlt_irrefl _ (Hall _ Hin)).
  - cbn [find_redirect]. destruct (tid_eqb x k) eqn:E2.
    + apply tid_eqb_eq in E2. subst x. rewrite tid_eqb_sym, E1. reflexivity.
    + apply IH. exact Hs'.
Qed.

(** * The queues of the scheduler *)
Lemma nth_queue_ok qs : forall i q, nth_queue qs i = Ok q <-> nth_error qs i = Some q.
Proof.
  induction qs as [|h t IH]; intros i q; [destruct i; cbn; split; discriminate|].
  destruct i as [|k]; cbn [nth_queue nth_error]; [split; intros H; inversion H; reflexivity | apply IH].
Qed.

Lemma set_queue_Forall (P : queue -> Prop) qs : forall i q, Forall P qs -> P q -> Forall P (set_queue qs i q).
Proof.
  induction qs as [|h t IH]; intros i q F Hq; [destruct i; constructor|].
  inversion F; subst. destruct i; cbn; constructor; auto.
Qed.

(** * Worker-side tables: the update map [wu_set] and the blocked lists [bl_set] *)
Lemma wu_set_in m x u : In u (wu_set m x) -> u = x \/ In u m.
Proof.
  induction m as [|h t IH]; cbn [wu_set In]; [intros [H|[]]; auto|].
  destruct (N.eqb (wu_w x) (wu_w h)); cbn [In]; [intros [H|H]; auto|].
  intros [H|H]; [auto|]. destruct (IH H); auto.
Qed.

Lemma bl_set_keys b rq v : forall k, In k (map fst (bl_set b rq v)) -> k = rq \/ In k (map fst b).
Proof.
  induction b as [|[k0 v0] r IH]; cbn [bl_set map]; intros k.
  - intros [H|[]]; auto.
  - destruct (N.eqb rq k0) eqn:E1; cbn [map fst In].
    + apply N.eqb_eq in E1. subst. intros [H|H]; auto.
    + destruct (N.ltb rq k0); cbn [map fst In]; [intros [H|[H|H]]; auto|].
      intros [H|H]; [auto|]. destruct (IH _ H); auto.
Qed.

Lemma bl_set_sorted b rq v : StronglySorted N.lt (map fst b) -> StronglySorted N.lt (map fst (bl_set b rq v)).
Proof.
  induction b as [|[k0 v0] r IH]; cbn [bl_set map]; intros Hs; [constructor; constructor|].
  inversion Hs as [|? ? Hs' Hall]; subst. cbn [fst] in *.
  destruct (N.eqb rq k0) eqn:E1.
  - apply N.eqb_eq in E1. subst. cbn [map fst]. constructor; assumption.
  - destruct (N.ltb rq k0) eqn:E2; cbn [map fst].
    + apply N.ltb_lt in E2. constructor; [exact Hs|]. constructor; [exact E2|].
      rewrite Forall_forall in *. intros y Hy. specialize (Hall _ Hy). lia.
    + constructor; [apply IH; exact Hs'|]. rewrite Forall_forall in *. intros y Hy.
      destruct (bl_set_keys _ _ _ _ Hy) as [->|Hy']; [|apply Hall; exact Hy'].
      apply N.eqb_neq in E1. apply N.ltb_ge in E2. lia.
Qed.

(** * Sending to a worker leaves the core alone; a new request class leaves the tasks alone *)
Lemma send_worker_core s w m s' : send_worker s w m = Ok s' -> core_of s' = core_of s.
Proof. unfold send_worker. destruct (find_proc _ w); [|discriminate]. intros H; inversion H; reflexivity. Qed.
Lemma get_or_create_rq_tasks s r : c_tasks (core_of (fst (get_or_create_rq s r))) = c_tasks (core_of s).
Proof. unfold get_or_create_rq. destruct (rq_index _ r 0); reflexivity. Qed.
