(** C03 across a restart, part 3: every operation of the system model.

    Submits first.  A submit emits no terminal event; what matters is which dependency edges the
    core keeps for the new tasks.  [register_deps] keeps exactly the dependencies that are in the
    core at that moment (a finished or dead dependency is dropped - for a dead one this is finding
    F12).  (i) The tasks already in the core keep their dependency lists ([egrow]); (ii) a new task
    keeps every raw dependency that is in the core before the submit or is an EARLIER task of the
    same submit ([add_new_tasks_kept]); (iii) what the validation of a task graph guarantees about
    raw dependencies ([validate_graph_ok]); (iv) the accepted graph submit, put together
    ([submit_graph_X]): every raw dependency of a new task is dead already (its job state is
    terminal) or is an edge the core keeps.

    Then worker loss and cancel as pieces of the reactor ([LK]), and [step_cases]: an operation is
    such a piece, or emits no terminal event and only grows the edges.

    [step_dep_closed]: for a state with the proved invariants ([INV], InvBundle.v) and
    [step s o = Ok (s', outs)], the events of the step are dependency-closed w.r.t. the edges of
    [s_core s]: for every decomposition [outs = pre ++ o :: post] where [o] kills [t] (EvFailed t,
    or EvCanceled / EvAborted naming t), every task [x] of the core that lists [t] in [t_deps] is
    named by a terminal event of [pre ++ [o]]. *)
From HQ Require Import Base.Prelude Cluster.Types Cluster.Core Cluster.Reactor Cluster.Server Cluster.ProofsJob Cluster.ProofsMore Cluster.ProofsStep Cluster.ProofsFinal Cluster.BijBase Cluster.BijHq Cluster.BijReact Cluster.BijFinal Cluster.CrashFrame Cluster.ProofsOnce Cluster.InvDBase Cluster.InvDSpec Cluster.InvDRem Cluster.InvDReact Cluster.InvDHq Cluster.InvDStep Cluster.Sys Cluster.ProofsTerminal Cluster.BijCore Cluster.BijSt Cluster.InvWFinal Cluster.InvDSched Cluster.InvBundle Cluster.DepOrderBase Cluster.DepOrderReact.
From HQ Require Import Cluster.ReactSplit.
From HQ Require Import Cluster.ModelFacts.
Local Open Scope N_scope.

Arguments N.add : simpl never.
Arguments N.sub : simpl never.

Lemma dedup_sorted_in l : forall acc j d0, In d0 l \/ In (j, d0) acc -> In (j, d0) (dedup_sorted l acc j).
Proof.
  induction l as [|h t IH]; cbn [dedup_sorted]; intros acc j d0 H; [destruct H as [[]|H]; exact H|].
  apply IH. destruct H as [[->|H]|H]; [right; apply tid_insert_has | left; exact H | right; apply tid_insert_keeps; exact H].
Qed.

Lemma validate_graph_ok jtasks ts : forall seen,
  validate_graph jtasks seen ts = None ->
  forall pre g post d0, ts = pre ++ g :: post -> In d0 (gt_deps g) ->
    d0 <> gt_id g /\ (In d0 seen \/ In d0 (map gt_id pre) \/ jt_find jtasks d0 <> None).
Proof.
  induction ts as [|g0 r IH]; intros seen H pre g post d0 E Hd; [destruct pre; discriminate|].
  cbn [validate_graph] in H. destruct (n_mem (gt_id g0) seen); [discriminate|].
  match type of H with (match find ?f ?l with _ => _ end) = _ => destruct (find f l) eqn:Ef; [discriminate|] end.
  destruct pre as [|p pre'].
  - cbn [app] in E. inversion E; subst g0 post. pose proof (find_none _ _ Ef d0 Hd) as Hf. cbn beta in Hf.
    apply orb_false_iff in Hf. destruct Hf as [H1 H2]. apply N.eqb_neq in H1. split; [exact H1|].
    apply andb_false_iff in H2. destruct H2 as [H2|H2].
    + apply negb_false_iff in H2. cbn [n_mem] in H2. apply orb_true_iff in H2. destruct H2 as [H2|H2]; [apply N.eqb_eq in H2; contradiction|].
      left. apply n_mem_In. exact H2.
    + right. right. destruct (jt_find jtasks d0); [discriminate | discriminate].
  - cbn [app] in E. inversion E; subst p r.
    destruct (IH _ H pre' g post d0 eq_refl Hd) as [A B]. split; [exact A|].
    destruct B as [B|[B|B]]; [|right; left; right; exact B | right; right; exact B].
    destruct B as [<-|B]; [right; left; left; reflexivity | left; exact B].
Qed.

Lemma graph_tasks_nth jid rqis pre : forall g post tasks,
  graph_tasks jid rqis (pre ++ g :: post) = Ok tasks ->
  exists tpre t tpost, tasks = tpre ++ t :: tpost /\ t_id t = (jid, gt_id g) /\
    t_deps t = dedup_sorted (gt_deps g) [] jid /\ map t_id tpre = map (fun g0 => (jid, gt_id g0)) pre.
Proof.
  induction pre as [|p pre' IH]; cbn [app graph_tasks]; intros g post tasks H.
  - destruct (nth_error rqis (N.to_nat (gt_rq g))) as [rqi|]; [|discriminate].
    apply bind_ok in H. destruct H as (rest & _ & H). inversion H; subst.
    eexists [], _, rest. split; [reflexivity|]. split; [reflexivity|]. split; reflexivity.
  - destruct (nth_error rqis (N.to_nat (gt_rq p))) as [rqi|]; [|discriminate].
    apply bind_ok in H. destruct H as (rest & Hr & H). inversion H; subst.
    destruct (IH _ _ _ Hr) as (tpre & t & tpost & E & I1 & I2 & I3).
    eexists (_ :: tpre), t, tpost. split; [rewrite E; reflexivity|]. split; [exact I1|]. split; [exact I2|].
    cbn [map]. rewrite I3. reflexivity.
Qed.

Lemma add_new_tasks_cons c t r ret c' ret' :
  add_new_tasks c (t :: r) ret = Ok (c', ret') ->
  exists c3 ret3, add_new_tasks c [t] ret = Ok (c3, ret3) /\ add_new_tasks c3 r ret3 = Ok (c', ret').
Proof.
  cbn [add_new_tasks]. intros H.
  destruct (register_deps c (t_id t) (t_deps t) [] 0) as [[c1 kept] count].
  apply bind_ok in H. destruct H as ([c2 rt] & H2 & H). rewrite H2. cbn [bind].
  destruct (find_task (c_tasks c2) (t_id t)); [discriminate|].
  eexists _, _. split; [reflexivity | exact H].
Qed.

Lemma add_one_kept c t ret c3 ret3 :
  GD c -> NoDup (t_deps t) -> add_new_tasks c [t] ret = Ok (c3, ret3) ->
  exists t1, fm c3 (t_id t) = Some t1 /\ (forall d, In d (t_deps t) -> inm (fm c) d = true -> In d (t_deps t1)).
Proof.
  intros [Hs D] Hnd H. cbn [add_new_tasks] in H.
  destruct (register_deps c (t_id t) (t_deps t) [] 0) as [[c1 kept] count] eqn:Er.
  destruct (register_deps_fm _ _ _ _ _ _ _ _ Hnd (fun x tx => dx_nofin _ _ D x tx) Er) as (_ & _ & K1 & _).
  cbn [app] in K1.
  apply bind_ok in H. destruct H as ([c2 rt] & H2 & H).
  destruct (find_task (c_tasks c2) (t_id t)); [discriminate|]. inversion H; subst c3 ret3.
  eexists. split.
  - rewrite fm_upd. unfold mupd. cbn [t_id with_state with_deps]. rewrite tid_eqb_refl. reflexivity.
  - intros d Hd Hi. cbn [t_deps with_state with_deps]. rewrite K1. apply filter_In. split; assumption.
Qed.

Lemma grown_fwd ts c c' :
  grown ts (fm c) (fm c') -> (forall t, In t ts -> fm c (t_id t) = None) ->
  (forall x, inm (fm c) x = true -> inm (fm c') x = true) ->
  forall x tx, fm c x = Some tx -> exists tx', fm c' x = Some tx' /\ t_deps tx' = t_deps tx.
Proof.
  intros Gr Hfr Hmono x tx Ex.
  assert (Hi : inm (fm c') x = true) by (apply Hmono; apply inm_true; eauto).
  apply inm_true in Hi. destruct Hi as (tx' & Ex'). exists tx'. split; [exact Ex'|].
  destruct (Gr _ _ Ex') as [(t0 & E0 & Ed)|(t & Hin & -> & _)].
  - rewrite Ex in E0. inversion E0; subst t0. exact Ed.
  - rewrite (Hfr _ Hin) in Ex. discriminate.
Qed.

Definition egrow (m m' : tmap) : Prop :=
  (forall x tx, m x = Some tx -> exists tx', m' x = Some tx' /\ t_deps tx' = t_deps tx) /\
  (forall x tx', m' x = Some tx' ->
     (exists tx, m x = Some tx /\ t_deps tx' = t_deps tx) \/ (forall d, In d (t_deps tx') -> m' d <> None)).

Lemma egrow_refl m : egrow m m.
Proof. split; [intros x tx Ex; eauto | intros x tx' Ex; left; eauto]. Qed.

Lemma egrow_tasks c c' : c_tasks c' = c_tasks c -> egrow (fm c) (fm c').
Proof. intros E. unfold fm. rewrite E. apply egrow_refl. Qed.

Lemma scr_egrow c c' : scr c c' -> egrow (fm c) (fm c').
Proof.
  intros [_ S]. split.
  - intros x tx Ex. destruct (SC_some _ _ _ _ S Ex) as (tx' & Ex' & (_ & Hd & _) & _). eauto.
  - intros x tx' Ex'. destruct (SC_some' _ _ _ _ S Ex') as (tx & Ex & (_ & Hd & _) & _). left. eauto.
Qed.

Definition nodep_on (ts : list task) (c : core) : Prop :=
  forall t x tx, In t ts -> fm c x = Some tx -> ~ In (t_id t) (t_deps tx).

Lemma add_new_tasks_kept ts : forall c ret c' ret',
  GD c -> Forall new_wf ts -> nodep_on ts c ->
  add_new_tasks c ts ret = Ok (c', ret') ->
  forall pre t post, ts = pre ++ t :: post ->
    exists tx', fm c' (t_id t) = Some tx' /\
      forall d, In d (t_deps t) -> (inm (fm c) d = true \/ In d (map t_id pre)) -> In d (t_deps tx').
Proof.
  induction ts as [|t0 r IH]; intros c ret c' ret' G Hwf Hnd H pre t post E; [destruct pre; discriminate|].
  destruct (add_new_tasks_cons _ _ _ _ _ _ H) as (c3 & ret3 & H0 & Hr).
  inversion Hwf as [|? ? Hwf0 Hwfr]; subst.
  assert (Hnd0 : nodep_on [t0] c) by (intros t' x tx [<-|[]] Ex; eapply Hnd; [left; reflexivity | exact Ex]).
  destruct (add_new_tasks_DI [t0] _ _ _ _ G (Forall_cons _ Hwf0 (Forall_nil _)) Hnd0 H0) as [G3 Gr3].
  destruct (add_new_ids_fresh _ _ _ _ _ H0) as [_ Hmono03].
  destruct (add_new_ids_fresh _ _ _ _ _ Hr) as [Hfresh3 Hmono3].
  assert (Hnd3 : nodep_on r c3).
  { intros t' x tx3 Hin Ex Hdep. destruct (Gr3 _ _ Ex) as [(tx & Etx & Ed)|(tn & _ & _ & _ & Hdom)].
    - rewrite Ed in Hdep. eapply Hnd; [right; exact Hin | exact Etx | exact Hdep].
    - apply (Hdom _ Hdep). apply Hfresh3. exact Hin. }
  destruct (add_one_kept _ _ _ _ _ G (proj1 Hwf0) H0) as (t1 & E1 & K1).
  destruct pre as [|p pre'].
  - cbn [app] in E. inversion E; subst t0 post.
    destruct (add_new_tasks_DI r _ _ _ _ G3 Hwfr Hnd3 Hr) as [_ Grr].
    destruct (grown_fwd r c3 c' Grr Hfresh3 Hmono3 _ _ E1) as (tx' & Ex' & Ed').
    exists tx'. split; [exact Ex'|]. intros d Hd [Hi|[]]. rewrite Ed'. apply K1; assumption.
  - cbn [app] in E. inversion E; subst p r.
    destruct (IH _ _ _ _ G3 Hwfr Hnd3 Hr pre' t post eq_refl) as (tx' & Ex' & Hk).
    exists tx'. split; [exact Ex'|]. intros d Hd Hsrc. apply Hk; [exact Hd|].
    destruct Hsrc as [Hi|[<-|Hin]].
    + left. apply Hmono03. exact Hi.
    + left. apply inm_true. eauto.
    + right. exact Hin.
Qed.

Lemma submit_tail_X s4 jid ids tasks s' :
  PRE s4 -> Forall new_wf tasks -> map t_id tasks = map (fun i => (jid, i)) ids ->
  (do j <- hq_get_job s4 jid 222;
   do j' <- attach_ids j ids;
   do s6 <- on_new_tasks (hq_set_job s4 j') tasks;
   submit_ok_resp s6 jid) = Ok s' ->
  egrow (fm (core_of s4)) (fm (core_of s')) /\
  (forall pre t post, tasks = pre ++ t :: post ->
     exists tx', fm (core_of s') (t_id t) = Some tx' /\
       forall d, In d (t_deps t) -> (inm (fm (core_of s4)) d = true \/ In d (map t_id pre)) -> In d (t_deps tx')) /\
  (exists n ids', snd s' = snd s4 ++ [OResp (RSubmitOk jid n ids')]).
Proof.
  intros [G4 D4] Hwf Hids H.
  apply bind_ok in H. destruct H as (j & Hj & H). apply bind_ok in H. destruct H as (j' & Ha & H).
  apply bind_ok in H. destruct H as (s6 & H6 & H).
  destruct (jt_get _ _ _ _ Hj) as [Ej Eid].
  pose proof (attach_ids_fresh _ _ _ Ha) as Hfr.
  set (s5 := hq_set_job s4 j') in *.
  assert (Hnd : nodep_on tasks (core_of s5)).
  { intros t x tx Hin Ex Hdep. change (fm (core_of s4) x = Some tx) in Ex.
    destruct (D4 _ _ _ Ex Hdep) as [_ (l & Hl & Hk)].
    assert (Hi : In (t_id t) (map (fun i => (jid, i)) ids)) by (rewrite <- Hids; apply in_map; exact Hin).
    apply in_map_iff in Hi. destruct Hi as (i & Ei & Hi). rewrite <- Ei in Hl, Hk. cbn [fst snd] in Hl, Hk.
    rewrite Ej in Hl. inversion Hl; subst l. apply Hk. apply Hfr. exact Hi. }
  assert (Hs' : c_tasks (core_of s') = c_tasks (core_of s6) /\ exists n ids', snd s' = snd s6 ++ [OResp (RSubmitOk jid n ids')]).
  { unfold submit_ok_resp in H. apply bind_ok in H. destruct H as (jx & _ & H). inversion H; subst. split; [reflexivity|]. eexists _, _. reflexivity. }
  destruct Hs' as [Ts' (n & ids' & Ss')].
  assert (Efm : fm (core_of s') = fm (core_of s6)) by (unfold fm; rewrite Ts'; reflexivity).
  rewrite Efm. rewrite (on_new_tasks_snd _ _ _ H6) in Ss'. change (snd s5) with (snd s4) in Ss'.
  unfold on_new_tasks in H6. destruct tasks as [|t0 tr] eqn:Et.
  { inversion H6; subst s6. split; [apply egrow_refl|].
    split; [intros pre t post E; destruct pre; discriminate E | exists n, ids'; exact Ss']. }
  rewrite <- Et in *. clear Et.
  apply bind_ok in H6. destruct H6 as ([c' retracted] & Hadd & H6). apply bind_ok in H6. destruct H6 as (s1 & Hr & H6). inversion H6; subst s6.
  pose proof (process_retracted_scr _ _ _ Hr) as [_ S1]. cbn in S1.
  split; [|split; [|exists n, ids'; exact Ss']].
  - destruct (add_new_tasks_DI _ _ _ _ _ G4 Hwf Hnd Hadd) as [_ Gr].
    destruct (add_new_ids_fresh _ _ _ _ _ Hadd) as [Hfresh Hmono].
    split.
    + intros x tx Ex. destruct (grown_fwd _ _ _ Gr Hfresh Hmono x tx Ex) as (tx1 & E1 & Ed1).
      destruct (SC_some _ _ _ _ S1 E1) as (tx2 & E2 & (_ & Hd2 & _) & _).
      exists tx2. split; [exact E2 | congruence].
    + intros x tx' Ex. destruct (SC_some' _ _ _ _ S1 Ex) as (tx1 & E1 & (_ & Hd1 & _) & _).
      destruct (Gr _ _ E1) as [(tx & Etx & Ed)|(t & _ & _ & _ & Hdom)].
      * left. exists tx. split; [exact Etx | congruence].
      * right. intros d Hd. rewrite Hd1 in Hd. specialize (Hdom d Hd).
        change (fm (core_of (ask_scheduling s1)) d) with (fm (core_of s1) d).
        pose proof (SC_inm _ _ d S1) as Hi. unfold inm in Hi.
        destruct (fm (core_of s1) d); [discriminate|]. destruct (fm c' d); [discriminate | congruence].
  - intros pre t post Et.
    destruct (add_new_tasks_kept _ _ _ _ _ G4 Hwf Hnd Hadd pre t post Et) as (tx1 & E1 & K1).
    destruct (SC_some _ _ _ _ S1 E1) as (tx2 & E2 & (_ & Hd2 & _) & _).
    exists tx2. split; [exact E2|]. intros d Hd Hsrc. rewrite Hd2. apply K1; assumption.
Qed.

Lemma validate_graph_err jtasks ts : forall seen e, validate_graph jtasks seen ts = Some e -> exists a b, e = RSubmitErr a b.
Proof.
  induction ts as [|g r IH]; cbn [validate_graph]; intros seen e H; [discriminate|].
  destruct (n_mem (gt_id g) seen); [inversion H; eauto|].
  match type of H with (match find ?f ?l with _ => _ end) = _ => destruct (find f l) end; [inversion H; eauto|].
  eapply IH; exact H.
Qed.

Lemma graph_ids_fresh_err j n l : forall e, graph_ids_fresh j n l = Ok (Some e) -> exists a b, e = RSubmitErr a b.
Proof.
  induction l as [|g r IH]; cbn [graph_ids_fresh]; intros e H; [discriminate|].
  destruct (jt_find (j_tasks j) (gt_id g)); [inversion H; eauto|].
  destruct (N.ltb (gt_rq g) (N.of_nat n)); [eapply IH; exact H | discriminate].
Qed.

Definition graph_outcome (s s' : st) (ts : list gtask) : Prop :=
  egrow (fm (core_of s)) (fm (core_of s')) /\
  exists q, snd s' = snd s ++ q /\
    forall j n ids, In (OResp (RSubmitOk j n ids)) q ->
      forall pre g post d0, ts = pre ++ g :: post -> In d0 (gt_deps g) ->
        d0 <> gt_id g /\
        ((exists v, task_state s (j, d0) = Some v /\ terminal v) \/ cdep (core_of s') (j, gt_id g) (j, d0)).

Lemma graph_outcome_rejected s ts a b : graph_outcome s (emit s (OResp (RSubmitErr a b))) ts.
Proof. split; [apply egrow_refl|]. eexists [_]. split; [reflexivity|]. intros j n ids [Hin|[]]. discriminate. Qed.

Lemma submit_graph_X s jobsel rqs ts mf s' :
  fresh s -> PRE s -> CB s -> handle_submit_graph s jobsel rqs ts mf = Ok s' -> graph_outcome s s' ts.
Proof.
  intros F P HC H. unfold handle_submit_graph in H.
  set (existing := match jobsel with Some j0 => find_job (hq_jobs s) j0 | None => None end) in *.
  set (job_tasks := match existing with Some j0 => j_tasks j0 | None => [] end) in *.
  apply bind_ok in H. destruct H as (v1 & Hv1 & H).
  match type of H with (match ?x with Some _ => _ | None => _ end) = _ => destruct x as [e|] eqn:Ev end.
  { inversion H; subst.
    assert (He : exists a b, e = RSubmitErr a b).
    { destruct v1 as [e1|]; [inversion Ev; subst e1|].
      - destruct existing as [j0|]; [|discriminate]. eapply graph_ids_fresh_err; exact Hv1.
      - eapply validate_graph_err; exact Ev. }
    destruct He as (a & b & ->). apply graph_outcome_rejected. }
  assert (Hval : validate_graph job_tasks [] ts = None) by (destruct v1; [discriminate | exact Ev]).
  apply bind_ok in H. destruct H as ([acc s1] & Hr & H).
  destruct acc as [[jid is_new]|].
  2:{ assert (E1 : (exists a b, s1 = emit s (OResp (RSubmitErr a b)))).
      { destruct jobsel as [jid|]; [|inversion Hr].
        unfold existing in Hr. destruct (find_job (hq_jobs s) jid) as [j|]; [|inversion Hr; subst; eauto].
        destruct (negb (j_open j)); inversion Hr; subst; eauto. }
      destruct E1 as (a & b & ->). inversion H; subst. apply graph_outcome_rejected. }
  cbv zeta in H.
  match type of H with context [fold_left ?f rqs (?sx, [])] => set (s3 := sx) in *; destruct (fold_left f rqs (s3, [])) as [s4 rqis] eqn:Erq end.
  assert (P3 : PRE s3 /\ c_tasks (core_of s3) = c_tasks (core_of s) /\ snd s3 = snd s ++ [OEv (EvSubmit jid is_new (N.of_nat (length ts)))]
               /\ (forall d0, jt_find job_tasks d0 <> None -> exists j, find_job (hq_jobs s) jid = Some j /\ job_tasks = j_tasks j)).
  { destruct jobsel as [j0|].
    - unfold existing in *. destruct (find_job (hq_jobs s) j0) as [j|] eqn:Ef; [|inversion Hr].
      destruct (negb (j_open j)); [inversion Hr|]. inversion Hr; subst.
      split; [subst s3; eapply PRE_frame; [| |exact P]; [reflexivity | apply KL_same; reflexivity]|].
      split; [reflexivity|]. split; [reflexivity|]. intros d0 _. exists j. split; [exact Ef | reflexivity].
    - inversion Hr; subst. split; [subst s3; apply PRE_new_job; assumption|]. split; [reflexivity|]. split; [reflexivity|].
      intros d0 Hd0. exfalso. apply Hd0. reflexivity. }
  destruct P3 as (P3 & T3 & S3 & Hjob).
  pose proof (fold_rqs_tasks _ _ _ _ _ Erq) as T4. pose proof (fold_rqs_same _ _ _ _ _ Erq) as Q4.
  pose proof (fold_rqs_snd _ _ _ _ _ Erq) as S4.
  assert (P4 : PRE s4) by (eapply PRE_frame; [exact T4 | apply KL_same; exact Q4 | exact P3]).
  apply bind_ok in H. destruct H as (j & Hj & H). apply bind_ok in H. destruct H as (j' & Ha & H).
  apply bind_ok in H. destruct H as (tasks & Hg & H).
  destruct (graph_tasks_spec _ _ _ _ Hg) as [G1 _].
  destruct (submit_tail_X s4 jid (map gt_id ts) tasks s' P4 (graph_tasks_wf _ _ _ _ Hg) G1) as (Xf & Xn & (n & ids' & Xs)).
  { rewrite Hj. cbn [bind]. rewrite Ha. cbn [bind]. exact H. }
  assert (Efm : fm (core_of s4) = fm (core_of s)) by (unfold fm; rewrite T4, T3; reflexivity).
  rewrite Efm in Xf, Xn. split; [exact Xf|].
  eexists [_; _]. split; [rewrite Xs, S4, S3, <- app_assoc; reflexivity|].
  intros j0 n0 ids0 [Hin|[Hin|[]]]; [discriminate|]. inversion Hin; subst j0 n0 ids0.
  intros pre g post d0 Ets Hd0.
  destruct (validate_graph_ok _ _ _ Hval pre g post d0 Ets Hd0) as [Hne Hsrc]. split; [exact Hne|].
  rewrite Ets in Hg. destruct (graph_tasks_nth _ _ _ _ _ _ Hg) as (tpre & t & tpost & Etk & I1 & I2 & I3).
  destruct (Xn tpre t tpost Etk) as (tx' & Ex' & Hk). rewrite I1 in Ex'.
  assert (Hdt : In (jid, d0) (t_deps t)) by (rewrite I2; apply dedup_sorted_in; left; exact Hd0).
  destruct Hsrc as [[]|[Hpre|Hjt]].
  - right. exists tx'. split; [exact Ex'|]. apply Hk; [exact Hdt|]. right. rewrite I3.
    apply in_map_iff in Hpre. destruct Hpre as (g0 & <- & Hg0). apply in_map_iff. exists g0. split; [reflexivity | exact Hg0].
  - destruct (Hjob d0 Hjt) as (jb & Ejb & Etasks). rewrite Etasks in Hjt.
    destruct (jt_find (j_tasks jb) d0) as [v|] eqn:Ev0; [|congruence].
    assert (Hts : task_state s (jid, d0) = Some v).
    { unfold task_state. cbn [fst snd]. unfold hq_jobs in Ejb. unfold hq_of. rewrite Ejb. exact Ev0. }
    assert (Hact : jactive (Some v) -> cdep (core_of s') (jid, gt_id g) (jid, d0)).
    { intros Ha0. exists tx'. split; [exact Ex'|]. apply Hk; [exact Hdt|]. left.
      assert (Hac : active s (jid, d0)).
      { exists (j_tasks jb). cbn [fst snd]. split; [unfold jt, hq_of; unfold hq_jobs in Ejb; rewrite Ejb; reflexivity | rewrite Ev0; exact Ha0]. }
      destruct (active_core_task _ _ HC Hac) as (td & Etd). apply inm_true. exists td. exact Etd. }
    destruct v; try solve [left; eexists; split; [exact Hts | unfold terminal; auto]].
    + right. apply Hact. left; reflexivity.
    + right. apply Hact. right; reflexivity.
Qed.

Lemma submit_array_fwd s jobsel ids entries rq prio cl tlim mf s' :
  fresh s -> PRE s -> (match entries with Some n => (length ids <= N.to_nat n)%nat | None => True end) ->
  handle_submit_array s jobsel ids entries rq prio cl tlim mf = Ok s' ->
  egrow (fm (core_of s)) (fm (core_of s')).
Proof.
  intros F P Hwf H. unfold handle_submit_array in H.
  match type of H with (match ?x with Some _ => _ | None => _ end) = _ => destruct x end;
    [inversion H; subst; apply egrow_refl|].
  apply bind_ok in H. destruct H as ([acc s1] & Hr & H).
  destruct acc as [[[jid is_new] ids']|].
  - cbv zeta in H.
    match type of H with context [get_or_create_rq ?sx rq] => set (s3 := sx) in *; destruct (get_or_create_rq s3 rq) as [s4 rqi] eqn:Erq end.
    assert (P3 : PRE s3 /\ c_tasks (core_of s3) = c_tasks (core_of s) /\ (match entries with Some n => (length ids' <= N.to_nat n)%nat | None => True end)).
    { destruct jobsel as [j0|].
      - destruct (find_job (hq_jobs s) j0) as [j|] eqn:Ef; [|inversion Hr].
        destruct (negb (j_open j)); [inversion Hr|]. inversion Hr; subst. split; [|split; [reflexivity|]].
        + subst s3. eapply PRE_frame; [| |exact P]; [reflexivity | apply KL_same; reflexivity].
        + destruct ids; [|exact Hwf]. destruct entries as [n|]; [|exact I]. rewrite range_from_length. lia.
      - inversion Hr; subst. split; [|split; [reflexivity|]].
        + subst s3. apply PRE_new_job; assumption.
        + destruct ids; [|exact Hwf]. destruct entries as [n|]; [|exact I]. rewrite range_from_length. lia. }
    destruct P3 as (P3 & T3 & Hwf').
    pose proof (get_or_create_rq_tasks s3 rq) as T4. rewrite Erq in T4. cbn [fst] in T4.
    pose proof (get_or_create_rq_same s3 rq) as Q4. rewrite Erq in Q4. cbn [fst] in Q4.
    assert (P4 : PRE s4) by (eapply PRE_frame; [exact T4 | apply KL_same; exact Q4 | exact P3]).
    assert (Efm : fm (core_of s4) = fm (core_of s)) by (unfold fm; rewrite T4, T3; reflexivity).
    rewrite <- Efm.
    eapply (submit_tail_X s4 jid ids'); [exact P4 | | | exact H].
    + apply Forall_forall. intros t Ht. apply in_map_iff in Ht. destruct Ht as (i & <- & _). split; [constructor | reflexivity].
    + rewrite map_map. cbn. destruct entries as [n|]; [rewrite take_n_all; [reflexivity | exact Hwf'] | reflexivity].
  - assert (E1 : c_tasks (core_of s1) = c_tasks (core_of s)).
    { destruct jobsel as [jid|]; [|inversion Hr].
      destruct (find_job (hq_jobs s) jid) as [j|]; [|inversion Hr; subst; reflexivity].
      destruct (negb (j_open j)); inversion Hr; subst; reflexivity. }
    assert (E2 : c_tasks (core_of s') = c_tasks (core_of s1)).
    { destruct jobsel; [match type of H with (match ?x with Some _ => _ | None => _ end) = _ => destruct x end|];
        inversion H; subst; reflexivity. }
    apply egrow_tasks. rewrite E2, E1. reflexivity.
Qed.

(** * Worker loss: everything before the crash-limit handling is quiet *)
Lemma on_remove_worker_LK_split s w reason a p t s' :
  W s -> QA (core_of s) -> WSTMT (core_of s) -> on_remove_worker s w reason a p t = Ok s' ->
  exists s4 s6 s7 running,
    hq_of s4 = hq_of s /\ snd s4 = snd s /\ process_worker_lost (broadcast s4 (DLostWorker w)) w running reason = Ok s6 /\
    LK s s6 /\ lost_fail_running s6 reason running = Ok s7 /\ s' = ask_scheduling s7.
Proof.
  intros HW Q HWS H.
  destruct (ReactSplit.on_remove_worker_split _ _ _ _ _ _ _ H) as (wk & c2 & running & retracted & s3 & s4 & s6 & s7 & Efw & Hr & H3 & H4 & Eh5 & Es5 & H6 & H7 & ->).
  set (c0 := with_workers (core_of s) (del_worker (c_workers (core_of s)) w)) in *.
  pose proof (w_cb _ HW) as HC.
  assert (Hs0 : CS c0) by exact (cb_s _ HC).
  pose proof (lost_sets_keys _ _ _ _ _ _ _ _ Hs0 Hr) as E2. change (keys c2 = K s) in E2.
  assert (S2 : scr (core_of s) c2).
  { unfold lost_sets in Hr. destruct (w_assign wk) as [a0 p0 f0|mt root] eqn:Ea.
    - destruct (negb _) eqn:Eperm; [discriminate|]. apply negb_false_iff in Eperm. apply andb_true_iff in Eperm. destruct Eperm as [Pa Pp].
      apply bind_ok in Hr. destruct Hr as (c1 & Hp & Hr).
      assert (Q0 : QA c0) by (eapply QA_tasks_queues; [| |exact Q]; reflexivity).
      destruct (lost_prefilled_QA _ _ _ Q0 Hp) as [S1 _].
      assert (S01 : scr (core_of s) c1) by (eapply scr_trans; [apply (scr_tasks _ c0); reflexivity | exact S1]).
      eapply scr_trans; [exact S01|]. eapply lost_assigned_scr; [|exact Hr].
      eapply zlist_scr; [exact S01|]. intros id tk Hin Ef. eapply (WSTMT_assigned _ _ _ _ _ _ HWS Efw Ea); [|exact Ef].
      eapply perm_of_set_sub; eassumption.
    - apply bind_ok in Hr. destruct Hr as (tk & Ht & Hr). pose proof (get_task_find _ _ _ Ht) as Ht'.
      destruct (t_state tk) eqn:Est; try discriminate. destruct ws as [|w0 rest]; [discriminate|].
      destruct (N.eqb w w0).
      + apply bind_ok in Hr. destruct Hr as (c1 & Hc1 & Hr). apply bind_ok in Hr. destruct Hr as ([qs ret] & _ & Hr).
        inversion Hr; subst. pose proof (reset_mn_all_tasks _ _ _ Hc1) as T1.
        eapply (scr_upd _ c1 _ mt tk); [exact T1 | exact Ht' | reflexivity | edges | cbn; ststep].
      + inversion Hr; subst. eapply (scr_upd _ c0 _ mt tk); [reflexivity | exact Ht' | reflexivity | edges | ststep]. }
  exists s4, s6, s7, running.
  match type of H3 with lost_retracting ?sx _ _ = _ => set (s2 := sx) in * end.
  assert (HC2 : CB s2) by (eapply CB_same; [exact E2 | reflexivity | exact HC]).
  pose proof (lost_retracting_K _ _ _ _ (cb_s _ HC2) H3) as K3. pose proof (lost_retracting_same _ _ _ _ H3) as Q3.
  assert (HC3 : CB s3) by (eapply CB_same; [exact K3 | exact Q3 | exact HC2]).
  pose proof (process_retracted_K _ _ _ (cb_s _ HC3) H4) as K4. pose proof (process_retracted_hq _ _ _ H4) as Q4.
  pose proof (lost_retracting_scr _ _ _ _ H3) as S3. cbn in S3.
  pose proof (process_retracted_scr _ _ _ H4) as S4.
  set (s5 := broadcast s4 (DLostWorker w)) in *.
  split; [exact Eh5|]. split; [exact Es5|]. split; [exact H6|]. split; [|split; [exact H7 | reflexivity]].
  assert (L5 : LK s s5).
  { apply (LK_quiet s s5 []); [| | reflexivity |].
    - apply W_same_keys.
      + change (scr (core_of s) (core_of s4)). eapply scr_trans; [exact S2|]. eapply scr_trans; [exact S3 | exact S4].
      + change (K s4 = K s). rewrite K4, K3. exact E2.
      + exact Eh5.
    - rewrite app_nil_r. exact Es5.
    - intros _ x Hx. apply (active_same s s5); [apply jt_same; exact Eh5 | exact Hx]. }
  eapply LK_trans; [exact L5|].
  destruct (process_worker_lost_active _ _ _ _ _ H6) as [C6 A6]. unfold core_same in C6.
  destruct (process_worker_lost_ext _ _ _ _ _ H6) as (q & Eq & Hq).
  apply (LK_quiet s5 s6 q); [| exact Eq | exact Hq | intros _ x Hx; apply A6; exact Hx].
  intros HW5. apply (W_next s5 s6 HW5).
  - rewrite C6. apply RL_refl. exact (w_gd _ HW5).
  - eapply CB_frame; [unfold K; rewrite C6; reflexivity | exact A6 | exact (w_cb _ HW5)].
  - eapply process_worker_lost_ok; [exact (w_hok _ HW5) | exact H6].
  - eapply process_worker_lost_KL; exact H6.
Qed.

Lemma LK_on_remove_worker s w reason a p t s' :
  QA (core_of s) -> WSTMT (core_of s) -> on_remove_worker s w reason a p t = Ok s' -> LK s s'.
Proof.
  intros Q HWS H HW. destruct (on_remove_worker_LK_split _ _ _ _ _ _ _ HW Q HWS H) as (s4 & s6 & s7 & running & _ & _ & _ & L6 & H7 & ->).
  revert HW. change (LK s (ask_scheduling s7)).
  eapply LK_trans; [exact L6|]. eapply LK_trans; [eapply LK_lost_fail_running; exact H7|].
  apply LK_same_tasks; reflexivity.
Qed.

(** Cancel: one event names every active task of the job. *)
Lemma LK_handle_cancel s jid s' : handle_cancel s jid = Ok s' -> LK s s'.
Proof.
  intros H. pose proof H as H0. unfold handle_cancel in H.
  destruct (find_job (hq_jobs s) jid) as [j|] eqn:Ej; [|inversion H; subst; apply LK_emit; reflexivity].
  destruct (non_finished_task_ids j) as [|i0 ir] eqn:En; [inversion H; subst; apply LK_emit; reflexivity|].
  rewrite <- En in *. clear En. intros HW.
  assert (Hjt : jt s jid = Some (j_tasks j)) by (unfold jt, hq_of; unfold hq_jobs in Ej; rewrite Ej; reflexivity).
  pose proof (find_job_id _ _ _ Ej) as Hid.
  assert (Hin : forall x, In x (non_finished_task_ids j) <-> fst x = jid /\ active s x).
  { intros x. rewrite (non_finished_in _ _ (jok_sorted _ (w_hok _ HW _ (find_job_in _ _ _ Ej)))), Hid. split.
    - intros [Hf Ha]. split; [exact Hf|]. exists (j_tasks j). rewrite Hf. auto.
    - intros [Hf (l & Hl & Ha)]. split; [exact Hf|]. rewrite Hf, Hjt in Hl. inversion Hl; subst. exact Ha. }
  apply bind_ok in H. destruct H as (s1 & H1 & H). apply bind_ok in H. destruct H as (al & _ & H).
  apply bind_ok in H. destruct H as (s2 & H2 & H).
  destruct (set_cancel_state_active _ _ _ _ H2) as [C2 A2]. unfold core_same in C2.
  destruct (W_next s s' HW) as [HW' Hds].
  - injection H as <-. change (RL (core_of s) (core_of s2)). rewrite C2.
    eapply on_cancel_tasks_RL; [exact (w_gd _ HW) | exact H1].
  - eapply handle_cancel_CB; [exact (w_hok _ HW) | exact (w_cb _ HW) | exact H0].
  - eapply handle_cancel_ok; [exact (w_hok _ HW) | exact H0].
  - eapply handle_cancel_KL; exact H0.
  - split; [exact HW'|]. split; [exact Hds|]. injection H as <-.
    pose proof (on_cancel_tasks_hq _ _ _ H1) as Q1. pose proof (on_cancel_tasks_snd _ _ _ H1) as S1.
    destruct (set_cancel_state_ext _ _ _ _ H2) as (ext & E2 & [T2 B2]).
    eexists (ext ++ [_]). split; [cbn [snd emit]; rewrite E2, S1, <- app_assoc; reflexivity|]. split.
    + apply jc_app. split; [|apply jc_quiet; reflexivity].
      apply B2. intros t' x Ht' (tx & Ex & Hd). left. apply Hin.
      destruct (w_dj _ HW x tx t' Ex Hd) as [Hj _]. apply Hin in Ht'. split; [rewrite <- Hj; apply Ht'|].
      eapply core_task_active; [exact (w_cb _ HW) | exact Ex].
    + intros x Hx. rewrite terminal_ids_app, T2.
      destruct (in_dec tid_dec x (non_finished_task_ids j)) as [Ii|Ni]; [right; apply in_app_iff; left; exact Ii|].
      left. apply (active_same s2 (emit s2 _)); [intros; reflexivity|]. apply A2. split; [|exact Ni].
      apply (active_same s s1); [apply jt_same; exact Q1 | exact Hx].
Qed.

Lemma INV_W s : INV s -> W (s, []).
Proof. intros [Hok _ HC _ _ _ HD HJ]. constructor; [exact HD | exact HC | exact Hok | exact HJ]. Qed.

Lemma quiet_same_tasks (P : Prop) (s s' : sys) outs :
  terminal_ids outs = [] -> c_tasks (s_core s') = c_tasks (s_core s) ->
  terminal_ids outs = [] /\ (P -> egrow (fm (s_core s)) (fm (s_core s'))).
Proof. intros Hq Et. split; [exact Hq | intros _; apply egrow_tasks; exact Et]. Qed.

(** [H] says that the step returned given outputs without terminal event and a state with the
    tasks of [s]. *)
Local Ltac returned H := inversion H; subst; right; apply quiet_same_tasks; reflexivity.

Theorem step_cases s o s' outs :
  INV s -> step s o = Ok (s', outs) ->
  LK (s, []) (s', outs) \/
  (terminal_ids outs = [] /\ (op_wf o -> egrow (fm (s_core s)) (fm (s_core s')))).
Proof.
  intros HI H.
  assert (HQA : QA (s_core s)).
  { apply QSTMT_QA. destruct (inv_qs _ HI) as (_ & Q1 & Q2 & _). split; assumption. }
  assert (P : PRE (s, [])) by (split; [exact (inv_d _ HI) | exact (inv_dj _ HI)]).
  destruct o; cbn [step] in H.
  - unfold on_new_worker in H. returned H.
  - destruct (find_proc _ w); [|discriminate]. left.
    eapply LK_on_remove_worker; [exact HQA | apply WI_worker_sets_ok; exact (inv_w _ HI) | exact H].
  - destruct (bad_submit_lengths _ _); [returned H|]. right.
    split; [exact (handle_submit_array_tids _ _ _ _ _ _ _ _ _ _ H)|]. intros Hwf.
    change (egrow (fm (core_of (s, []))) (fm (core_of (s', outs)))).
    eapply (submit_array_fwd (s, [])); [exact (inv_fresh _ HI) | exact P | | exact H]. destruct entries; exact Hwf.
  - destruct (bad_graph_rq _ _); [returned H|]. destruct (dead_dep _ _ _); [returned H|]. right.
    split; [exact (handle_submit_graph_tids _ _ _ _ _ _ H)|]. intros _.
    exact (proj1 (submit_graph_X (s, []) _ _ _ _ (s', outs) (inv_fresh _ HI) P (inv_cb _ HI) H)).
  - unfold handle_open in H. returned H.
  - unfold handle_close in H.
    destruct (find_job _ j) as [jb|]; [|returned H]. destruct (j_open jb); [|returned H].
    apply bind_ok in H. destruct H as (s1 & H1 & H). inversion H; subst. right. apply quiet_same_tasks.
    + rewrite terminal_ids_app, (check_termination_tids _ _ _ H1). reflexivity.
    + destruct (check_termination_jt _ _ _ H1) as [C1 _]. unfold core_same in C1.
      change (c_tasks (core_of s1) = c_tasks (s_core s)). rewrite C1. reflexivity.
  - left. eapply LK_handle_cancel; exact H.
  - unfold handle_forget in H. destruct (find_job _ j) as [jb|]; [|returned H].
    apply bind_ok in H. destruct H as (na & _ & H). destruct (negb (j_open jb) && na); returned H.
  - destruct (find_proc _ w) as [p|]; [|discriminate]. destruct (p_down p); [discriminate|].
    inv_binds H. inversion H; subst. right. apply quiet_same_tasks; [apply tids_launch | reflexivity].
  - destruct (find_proc _ w) as [p|]; [|discriminate]. destruct (p_up p) as [|m rest]; [discriminate|].
    destruct m.
    + (* the update is taken from the channel (a quiet piece), then processed *)
      left. eapply LK_trans; [|eapply LK_on_task_update; exact H].
      apply (LK_quiet _ _ [OUp w (UUpdates us)]); [|reflexivity | reflexivity | intros _ x Hx; exact Hx].
      apply W_same_keys; [apply scr_tasks|..]; reflexivity.
    + right. split; [|intros _; apply scr_egrow; exact (on_retract_response_scr _ _ _ _ H)].
      unfold on_retract_response in H. destruct (retract_response_states _ w ids []) as [c' groups].
      apply bind_ok in H. destruct H as (s2 & H & H2).
      assert (Es : snd (s', outs) = snd s2) by (destruct (retract_wakes _ _ _ _); inversion H2; subst; reflexivity).
      change outs with (snd (s', outs)). rewrite Es, (send_redirected_snd _ _ _ H). reflexivity.
  - destruct (c_flag (s_core s)); [|discriminate]. right.
    split; [|intros _; apply scr_egrow; exact (run_scheduling_scr (s, []) _ _ HQA H)].
    change outs with (snd (s', outs)). rewrite (run_scheduling_snd _ _ _ H). reflexivity.
  - destruct (find_proc _ w) as [p|]; [|discriminate]. inv_binds H. inversion H; subst.
    right. apply quiet_same_tasks; [apply tids_launch | reflexivity].
  - destruct (find_proc _ w) as [p|]; [|discriminate]. returned H.
  - returned H.
  - inv_binds H. returned H.
Qed.

Theorem step_dep_closed_jc s o s' outs :
  INV s -> step s o = Ok (s', outs) -> jc (cdep (s_core s)) NoT outs.
Proof.
  intros HI H. destruct (step_cases _ _ _ _ HI H) as [L|[Hq _]]; [|apply jc_quiet; exact Hq].
  destruct (L (INV_W _ HI)) as (_ & _ & ext & E & J & _). cbn [snd app] in E. rewrite E. exact J.
Qed.

Theorem step_dep_closed s o s' outs pre e post t x tx :
  INV s -> step s o = Ok (s', outs) ->
  outs = pre ++ OEv e :: post -> In t (kill_ids (OEv e)) ->
  find_task (c_tasks (s_core s)) x = Some tx -> In t (t_deps tx) ->
  In x (terminal_ids (pre ++ [OEv e])).
Proof.
  intros HI H E Ht Ex Hd.
  pose proof (step_dep_closed_jc _ _ _ _ HI H) as J.
  destruct (proj1 (jc_decomp _ _ _) J pre (OEv e) post t x E Ht) as [A|[]]; [|exact A].
  exists tx. split; assumption.
Qed.

Print Assumptions step_dep_closed.
