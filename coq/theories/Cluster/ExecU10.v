(** C06 "instance ids strictly increase": what the protocol invariant says about the
    copies of a task the server knows (at most one, on the worker the task is placed on, never
    together with a pending give-back), and the conversion lemmas used at the level of [Sys.step]. *)
From HQ Require Import Base.Prelude Cluster.Types Cluster.Core Cluster.Reactor Cluster.Worker Cluster.Server Cluster.Sys Cluster.Monitors Cluster.RejHyp Cluster.ProofsJob Cluster.ProofsMore Cluster.ProofsTerminal Cluster.ProofsStep Cluster.ProofsFinal Cluster.ProofsOnce Cluster.BijBase Cluster.BijCore Cluster.BijHq Cluster.BijSt Cluster.BijReact Cluster.BijFinal Cluster.InvWBase Cluster.InvBundle Cluster.NoPanicL0 Cluster.NoPanicU0 Cluster.NoPanicU1 Cluster.NoPanicU2 Cluster.NoPanicU6 Cluster.ExecU1 Cluster.ExecU2 Cluster.ExecU9.
From HQ Require Import Cluster.ModelFacts.
From Coq Require Import ZArith Lia Sorting.Sorted.
Local Open Scope N_scope.

Definition isdc (d : ditem) : bool := match d with IDC _ _ => true | _ => false end.
Definition idc (D : list ditem) : nat := length (filter isdc D).
Definition lcp (L : litem) : nat := match L with LBack => 1%nat | _ => O end.
Definition lrun (L : litem) : nat := match L with LRun _ => 1%nat | _ => O end.
Definition isgive (u : uitem) : bool := match u with IRR | IRej _ => true | _ => false end.
(** the views in which the server has sent the task out and the worker has not started it *)
Definition sendable (v : view) : Prop := (exists rv, v = VA rv) \/ v = VP \/ v = VT \/ v = VM false.

(** A word holds at most one copy (compute item in [D], or backlog entry).  While it holds one,
    nothing has come back ([U] empty, not running) and a compute item is the first item of [D]. *)
Lemma lang_copies v U L D : lang v U L D = true ->
  L <> LBad /\
  match (idc D + lcp L)%nat with
  | O => (v = VN -> U = [] /\ L = LNone) /\ (existsb isgive U = true -> v <> VN)
  | S O => lrun L = O /\ U = [] /\ sendable v /\ (L = LBack \/ L = LNone /\ exists d D', D = d :: D' /\ isdc d = true)
  | _ => False
  end.
Proof.
  intros H. lang_unf. lang_inv H; cbn; unfold sendable; repeat split; intros; try discriminate; eauto 7.
Qed.

Lemma lang_empty v : lang v [] LNone [] = true -> v = VN \/ (exists rv, v = VR rv) \/ v = VM true.
Proof. intros H. lang_auto H; eauto. Qed.

Lemma idc_app a b : idc (a ++ b) = (idc a + idc b)%nat.
Proof. unfold idc. rewrite filter_app. apply app_length. Qed.

Lemma lang_new_copy v U L D Dadd : lang v U L (D ++ Dadd) = true -> (0 < idc Dadd)%nat ->
  D = [] /\ U = [] /\ L = LNone /\ sendable v.
Proof.
  intros H Hp. apply lang_copies in H. destruct H as [_ H]. rewrite idc_app in H.
  destruct (idc D + idc Dadd + lcp L)%nat as [|[|k]] eqn:E; [lia | | destruct H].
  destruct H as (_ & -> & Hv & [->|(-> & d & D' & Ed & Hd)]); [cbn in E; lia|].
  destruct D as [|d0 D0]; [auto|]. exfalso. cbn [app] in Ed. inversion Ed; subst d0.
  unfold idc in *. cbn [filter] in E. rewrite Hd in E. cbn in E. lia.
Qed.

Lemma dc_ditems x d : dc x d = idc (ditems x d).
Proof.
  unfold dc, idc, ditems, dcts. induction d as [|m r IH]; [reflexivity|]. cbn [flat_map]. rewrite ccnt_app, filter_app, app_length, <- IH. f_equal.
  destruct m; cbn [ditems_msg]; try reflexivity.
  - unfold ccnt. induction ts as [|ct ts IHt]; [reflexivity|]. cbn [filter flat_map]. rewrite filter_app, app_length, <- IHt. unfold sel.
    destruct (tid_eqb (ct_id ct) x); reflexivity.
  - induction ids as [|i ids IHi]; [reflexivity|]. cbn [flat_map]. rewrite filter_app, app_length, <- IHi. unfold sel. destruct (tid_eqb i x); reflexivity.
  - induction ids as [|i ids IHi]; [reflexivity|]. cbn [flat_map]. rewrite filter_app, app_length, <- IHi. unfold sel. destruct (tid_eqb i x); reflexivity.
Qed.

Lemma local_lcp p x : local p x <> LBad -> bl_count x (p_backlog p) = lcp (local p x).
Proof.
  unfold local. destruct (run_find (p_running p) x); destruct (bl_count x (p_backlog p)) as [|[|k]]; cbn; congruence.
Qed.

Lemma give_item x u : In x (match u with UReject y _ => [y] | _ => [] end) <-> existsb isgive (uitem_of x u) = true.
Proof.
  destruct u as [t0|t0 k|t0 rv|t0 rv|t0 rv|rq rv]; cbn [uitem_of]; unfold sel.
  - destruct (tid_eqb t0 x); cbn; (split; [intros [] | discriminate]).
  - destruct (tid_eqb t0 x); cbn; (split; [intros [] | discriminate]).
  - destruct (tid_eqb t0 x); cbn; (split; [intros [] | discriminate]).
  - destruct (tid_eqb t0 x); cbn; (split; [intros [] | discriminate]).
  - destruct (tid_eqb t0 x) eqn:E; cbn.
    + apply tid_eqb_eq in E. subst. split; auto.
    + split; [intros [->|[]]; rewrite tid_eqb_refl in E; discriminate | discriminate].
  - cbn. split; [intros [] | discriminate].
Qed.

Lemma gives_uitems x up : In x (gives up) <-> existsb isgive (uitems x up) = true.
Proof.
  unfold gives, uitems. induction up as [|m r IH]; [cbn; split; [intros [] | discriminate]|].
  cbn [flat_map]. rewrite in_app_iff, existsb_app, orb_true_iff, IH. apply or_iff_compat_r.
  destruct m as [us|ids]; cbn [uitems_msg].
  - unfold ugives. induction us as [|u us IHu]; [cbn; split; [intros [] | discriminate]|]. cbn [flat_map]. rewrite in_app_iff, existsb_app, orb_true_iff, IHu.
    apply or_iff_compat_r. apply give_item.
  - induction ids as [|i ids IHi]; [cbn; split; [intros [] | discriminate]|]. cbn [flat_map In]. rewrite existsb_app, orb_true_iff, <- IHi. unfold sel.
    destruct (tid_eqb i x) eqn:E; cbn.
    + apply tid_eqb_eq in E. subst. tauto.
    + split; [intros [->|H]; [rewrite tid_eqb_refl in E; discriminate | auto] | intros [H|H]; [discriminate | auto]].
Qed.

Lemma local_lrun p x : local p x <> LBad -> rn x p = lrun (local p x).
Proof. unfold local, rn. destruct (run_find (p_running p) x); destruct (bl_count x (p_backlog p)) as [|[|k]]; cbn; congruence. Qed.

Section Known.
Variable s : sys.
Hypothesis HP : PROTO s.
Variables (x : tid) (t : task).
Hypothesis Hf : find_task (c_tasks (s_core s)) x = Some t.

Lemma known_word w p : find_proc (s_procs s) w = Some p ->
  let v := view_of (t_state t) w (job_running (s_hq s) x) in
  lang v (uitems x (p_up p)) (local p x) (ditems x (p_down p)) = true /\ pc x p = (idc (ditems x (p_down p)) + lcp (local p x))%nat.
Proof.
  intros Hp v. pose proof (pr_words _ HP w p x t Hp Hf) as Hl. split; [exact Hl|].
  unfold pc. rewrite dc_ditems, (local_lcp _ _ (proj1 (lang_copies _ _ _ _ Hl))). reflexivity.
Qed.

Lemma known_pc w p : find_proc (s_procs s) w = Some p ->
  (pc x p <= 1)%nat /\ (view_of (t_state t) w (job_running (s_hq s) x) = VN -> pc x p = O /\ ~ In x (gives (p_up p))) /\
  ((0 < pc x p)%nat -> ~ In x (gives (p_up p)) /\ is_waiting t = false) /\
  (In x (gives (p_up p)) -> pc x p = O /\ view_of (t_state t) w (job_running (s_hq s) x) <> VN).
Proof.
  intros Hp. destruct (known_word w p Hp) as [Hl ->]. destruct (lang_copies _ _ _ _ Hl) as [_ Hc]. rewrite gives_uitems.
  destruct (idc _ + lcp _)%nat as [|[|n]]; [destruct Hc as [Hn Hg] | destruct Hc as (_ & -> & Hv & _) | destruct Hc].
  - split; [lia|]. split; [intros Ev; rewrite (proj1 (Hn Ev)); split; [reflexivity | discriminate]|]. split; [lia | auto].
  - split; [lia|]. split; [|split; [|discriminate]].
    + intros Ev. rewrite Ev in Hv. destruct Hv as [(rv & X)|[X|[X|X]]]; discriminate.
    + intros _. split; [discriminate|]. unfold is_waiting. destruct (t_state t) as [n|w1 rv1|w1|w1|w1 rv1|[|w0 ws]|]; try reflexivity; cbn [view_of] in Hv;
        destruct Hv as [(rv & X)|[X|[X|X]]]; discriminate.
Qed.

(** the worker a task is placed on *)
Definition vw (st : tstate) : option wid :=
  match st with
  | Assigned w _ | Prefilled w | Retracting w | Running w _ => Some w
  | RunningMN (w0 :: _) => Some w0
  | _ => None
  end.
Lemma view_vn st w jr : vw st <> Some w -> view_of st w jr = VN.
Proof.
  destruct st as [n|w1 rv1|w1|w1|w1 rv1|[|w0 ws]|]; cbn [view_of vw]; try reflexivity; intros H;
    (destruct (N.eqb _ w) eqn:E; [apply N.eqb_eq in E; subst; congruence | reflexivity]).
Qed.

Lemma known_ex1_proc w p : find_proc (s_procs s) w = Some p ->
  (ex1 x p <= 1)%nat /\ (view_of (t_state t) w (job_running (s_hq s) x) = VN -> ex1 x p = O).
Proof.
  intros Hp. destruct (known_word w p Hp) as [Hl Epc]. destruct (lang_copies _ _ _ _ Hl) as [Hb Hc].
  unfold ex1. rewrite Epc, (local_lrun _ _ Hb). destruct (idc _ + lcp _)%nat as [|[|n]]; [|rewrite (proj1 Hc) | destruct Hc].
  - split; [destruct (local p x); cbn; lia | intros Ev; rewrite (proj2 (proj1 Hc Ev)); reflexivity].
  - split; [lia | intros Ev; exfalso; destruct Hc as (_ & _ & Hv & _); rewrite Ev in Hv; destruct Hv as [(rv & X)|[X|[X|X]]]; discriminate].
Qed.

Lemma known_find p : In p (s_procs s) -> find_proc (s_procs s) (p_id p) = Some p.
Proof. exact (NoPanicU1.in_find_proc _ _ (pr_sorted _ HP)). Qed.

Lemma known_other p : In p (s_procs s) -> vw (t_state t) <> Some (p_id p) -> ex1 x p = O.
Proof. intros Hp Hn. exact (proj2 (known_ex1_proc _ p (known_find _ Hp)) (view_vn _ _ _ Hn)). Qed.

Lemma known_ex1 : (psum (ex1 x) (s_procs s) <= 1)%nat.
Proof.
  apply (psum_one _ _ (vw (t_state t)) (pr_sorted _ HP)); [|exact known_other].
  intros p Hp. exact (proj1 (known_ex1_proc _ p (known_find _ Hp))).
Qed.

Lemma known_cc : (cc x (s_procs s) <= 1)%nat.
Proof. pose proof known_ex1 as H. rewrite psum_ex1 in H. lia. Qed.

Lemma known_placed w : vw (t_state t) = Some w -> psum (ex1 x) (del_proc (s_procs s) w) = O.
Proof.
  intros Hv. apply psum_zero. intros p Hp. destruct (in_del_proc _ _ _ (pr_sorted _ HP) Hp) as [Hin Hne].
  apply (known_other p Hin). congruence.
Qed.

Lemma known_waiting : is_waiting t = true -> cc x (s_procs s) = O /\ forall p, In p (s_procs s) -> ~ In x (gives (p_up p)).
Proof.
  intros Hw.
  assert (Hv : forall w, view_of (t_state t) w (job_running (s_hq s) x) = VN).
  { intros w. unfold is_waiting in Hw. destruct (t_state t); try discriminate. reflexivity. }
  split.
  - rewrite cc_psum. apply psum_zero. intros p Hp. exact (proj1 (proj1 (proj2 (known_pc _ p (known_find _ Hp))) (Hv _))).
  - intros p Hp. exact (proj2 (proj1 (proj2 (known_pc _ p (known_find _ Hp))) (Hv _))).
Qed.

Lemma known_given p0 : In p0 (s_procs s) -> In x (gives (p_up p0)) -> cc x (s_procs s) = O.
Proof.
  intros Hp0 Hg. destruct (known_pc _ p0 (known_find _ Hp0)) as (_ & _ & _ & H4). destruct (H4 Hg) as [Z0 Hv0].
  rewrite cc_psum. apply psum_zero. intros p Hp. destruct (N.eq_dec (p_id p) (p_id p0)) as [E|E].
  - assert (p = p0) by (pose proof (known_find _ Hp) as A; pose proof (known_find _ Hp0) as B; rewrite E in A; congruence). subst. exact Z0.
  - pose proof (known_other p Hp) as Hz. unfold ex1 in Hz. enough (vw (t_state t) <> Some (p_id p)) by (specialize (Hz H); lia).
    intros Ev. apply Hv0. apply view_vn. congruence.
Qed.
End Known.
