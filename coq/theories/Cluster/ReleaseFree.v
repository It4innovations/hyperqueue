(** C08, resource part of "reservations released": what a cancel does to the free-resource
    counters of the single-node workers.

    The accounting conjunct of [core_ok] (free = total - sum of the assigned requests) is refuted in
    general (finding F23), so the statement is the exact RELATIVE one: the cancel gives back to every
    worker precisely the request amounts of the cancelled tasks it held in its assigned set (tasks
    assigned / running there, and retracting tasks redirected there), nothing else, and the worker's
    total stays what it was. *)
From HQ Require Import Base.Prelude Cluster.Types Cluster.Core Cluster.Reactor Cluster.Worker Cluster.Server Cluster.Sys Cluster.Monitors Cluster.ProofsJob Cluster.ProofsMore Cluster.ProofsTerminal Cluster.ProofsStep Cluster.ProofsFinal Cluster.ProofsAll Cluster.BijBase Cluster.BijCore Cluster.BijHq Cluster.BijSt Cluster.BijReact Cluster.BijFinal Cluster.RejHyp Cluster.InvWBase Cluster.InvWView Cluster.InvWCore Cluster.InvWReact Cluster.InvWFinal Cluster.InvQBase Cluster.InvQReact Cluster.InvQStep Cluster.InvAll Cluster.InvBundle Cluster.ReleaseCancel.
From HQ Require Import Cluster.ModelFacts.
From Coq Require Import ZArith Lia Sorting.Sorted.
Local Open Scope N_scope.

Arguments N.add : simpl never.
Arguments N.sub : simpl never.

(** What cancelling task [id] gives back to worker [w] in core [c]: the task's request if the task is
    in [w]'s assigned set (by its state), nothing otherwise. *)
Definition released (c : core) (w : wid) (id : tid) : list N :=
  match find_task (c_tasks c) id with
  | Some t =>
      match t_state t with
      | Assigned w' _ | Running w' _ => if N.eqb w' w then request_of c id else []
      | Retracting _ =>
          match find_redirect (c_redirects c) id with
          | Some (w', _) => if N.eqb w' w then request_of c id else []
          | None => []
          end
      | _ => []
      end
  | None => []
  end.

Lemma remove_sn_task_full wk id amt wk' : remove_sn_task wk id amt = Ok wk' ->
  exists a p f, w_assign wk = Sn a p f /\ wk' = with_assign wk (Sn (tid_remove id a) p (res_add_cap f amt (w_res wk))).
Proof.
  unfold remove_sn_task. destruct (w_assign wk) as [a p f|]; [|discriminate].
  destruct (tid_mem id a); [|discriminate]. intros H; inversion H; subst. exists a, p, f. auto.
Qed.

Lemma remove_prefill_task_full wk id wk' : remove_prefill_task wk id = Ok wk' ->
  exists a p f, w_assign wk = Sn a p f /\ wk' = with_assign wk (Sn a (tid_remove id p) f).
Proof.
  unfold remove_prefill_task. destruct (w_assign wk) as [a p f|]; [|discriminate].
  destruct (tid_mem id p); [|discriminate]. intros H; inversion H; subst. exists a, p, f. auto.
Qed.

Lemma res_add_nil f cap : res_add_cap f [] cap = f.
Proof. destruct f; reflexivity. Qed.

Lemma find_del_redirect_other rs id x : x <> id -> find_redirect (del_redirect rs id) x = find_redirect rs x.
Proof.
  intros Hne. induction rs as [|[k v] r IH]; cbn [del_redirect find_redirect]; [reflexivity|].
  destruct (tid_eqb id k) eqn:E1.
  - apply tid_eqb_eq in E1. subst k. destruct (tid_eqb x id) eqn:E2; [apply tid_eqb_eq in E2; contradiction | reflexivity].
  - cbn [find_redirect]. destruct (tid_eqb x k); [reflexivity | exact IH].
Qed.

Lemma get_rq_request c id t rq :
  find_task (c_tasks c) id = Some t -> get_rq (c_rqs c) (t_rq t) = Ok rq -> request_of c id = rq_res rq.
Proof.
  intros Hf Hr. unfold request_of. rewrite Hf. unfold get_rq in Hr.
  destruct (nth_error (c_rqs c) (N.to_nat (t_rq t))); inversion Hr; reflexivity.
Qed.

Lemma released_ext c c' w x :
  c_tasks c' = c_tasks c -> c_rqs c' = c_rqs c -> find_redirect (c_redirects c') x = find_redirect (c_redirects c) x ->
  released c' w x = released c w x.
Proof. intros Et Eq Er. unfold released, request_of. rewrite Et, Eq, Er. reflexivity. Qed.

Lemma fold_res_add_ext cap l : forall (g h : tid -> list N) acc, (forall x, In x l -> g x = h x) ->
  fold_left (fun a x => res_add_cap a (g x) cap) l acc = fold_left (fun a x => res_add_cap a (h x) cap) l acc.
Proof.
  induction l as [|y r IH]; intros g h acc E; [reflexivity|]. cbn [fold_left].
  rewrite (E y (or_introl eq_refl)). apply IH. intros x Hx. apply E. right. exact Hx.
Qed.

(** One round of the release loop of [on_cancel_tasks] as worker [w] (record [wk] before the
    round) sees it: tasks, requests and the redirects of the other tasks stay, and [w] is left
    alone, or [id] leaves its assigned set and [released] comes back, or [id] leaves its prefilled
    set, or [w] was reserved for the multi-node task [id] and is reset. *)
Definition cancel_round (c : core) (w : wid) (wk : sworker) (id : tid) (c1 : core) : Prop :=
  c_tasks c1 = c_tasks c /\ c_rqs c1 = c_rqs c /\
  (forall x, x <> id -> find_redirect (c_redirects c1) x = find_redirect (c_redirects c) x) /\
  exists wk1, find_worker (c_workers c1) w = Some wk1 /\
    ((wk1 = wk /\ released c w id = []) \/
     remove_sn_task wk id (released c w id) = Ok wk1 \/
     (remove_prefill_task wk id = Ok wk1 /\ released c w id = []) \/
     (wk1 = reset_mn_task wk /\
      exists t ws, find_task (c_tasks c) id = Some t /\ t_state t = RunningMN ws /\ n_mem w ws = true)).

Lemma cancel_round_none c w wk id c1 :
  c_tasks c1 = c_tasks c -> c_rqs c1 = c_rqs c -> c_redirects c1 = c_redirects c ->
  find_worker (c_workers c1) w = Some wk -> released c w id = [] -> cancel_round c w wk id c1.
Proof.
  intros Et Eq Er Hw Hrel. split; [exact Et|]. split; [exact Eq|]. split; [intros; rewrite Er; reflexivity|].
  exists wk. auto.
Qed.

Lemma cancel_round_upd c w wk id c1 w0 wk0 wk0' :
  find_worker (c_workers c) w = Some wk -> find_worker (c_workers c) w0 = Some wk0 -> w_id wk0' = w_id wk0 ->
  c_tasks c1 = c_tasks c -> c_rqs c1 = c_rqs c ->
  (forall x, x <> id -> find_redirect (c_redirects c1) x = find_redirect (c_redirects c) x) ->
  c_workers c1 = set_worker (c_workers c) wk0' ->
  (if N.eqb w0 w
   then remove_sn_task wk0 id (released c w id) = Ok wk0' \/ (remove_prefill_task wk0 id = Ok wk0' /\ released c w id = [])
   else released c w id = []) ->
  cancel_round c w wk id c1.
Proof.
  intros Hw Hw0 Hi Et Eq Er Ew Hk. split; [exact Et|]. split; [exact Eq|]. split; [exact Er|].
  rewrite Ew, find_set_worker, Hi. destruct (find_worker_some _ _ _ Hw0) as [_ ->]. rewrite (N.eqb_sym w w0).
  destruct (N.eqb w0 w) eqn:E.
  - apply N.eqb_eq in E. subst w0. rewrite Hw in Hw0. injection Hw0 as <-. exists wk0'. split; [reflexivity|].
    destruct Hk; auto.
  - exists wk. auto.
Qed.

Lemma cancel_release_head w s id r tu ru res wk :
  cancel_release s (id :: r) tu ru = Ok res -> find_worker (c_workers (core_of s)) w = Some wk ->
  exists s1 tu1 ru1, cancel_release s1 r tu1 ru1 = Ok res /\ cancel_round (core_of s) w wk id (core_of s1).
Proof.
  intros H Hw. cbn [cancel_release] in H. cbv zeta in H.
  destruct (find_task (c_tasks (core_of s)) id) as [t|] eqn:Ef.
  2:{ exists s, tu, ru. split; [exact H|]. apply cancel_round_none; auto. unfold released. rewrite Ef. reflexivity. }
  destruct (find_task_some _ _ _ Ef) as [_ Hid].
  apply bind_ok in H. destruct H as (csm & _ & H). apply bind_ok in H. destruct H as (rq & Hrq & H).
  pose proof (get_rq_request _ _ _ _ Ef Hrq) as Hreq.
  (* [id] leaves the assigned set of [w0], where its state or its redirect puts it *)
  assert (Hsn : forall w0 wk0 wk0' c1,
            released (core_of s) w id = (if N.eqb w0 w then rq_res rq else []) ->
            find_worker (c_workers (core_of s)) w0 = Some wk0 -> remove_sn_task wk0 id (rq_res rq) = Ok wk0' ->
            c_tasks c1 = c_tasks (core_of s) -> c_rqs c1 = c_rqs (core_of s) ->
            (forall x, x <> id -> find_redirect (c_redirects c1) x = find_redirect (c_redirects (core_of s)) x) ->
            c_workers c1 = set_worker (c_workers (core_of s)) wk0' -> cancel_round (core_of s) w wk id c1).
  { intros w0 wk0 wk0' c1 Hrel Hg Hrm Et Eq Er Ew.
    apply (cancel_round_upd _ _ _ _ _ w0 wk0 wk0' Hw Hg (proj1 (remove_sn_task_spec _ _ _ _ Hrm)) Et Eq Er Ew).
    rewrite Hrel. destruct (N.eqb w0 w); [left; exact Hrm | reflexivity]. }
  destruct (t_state t) as [n|w0 rv0|w0|w0|w0 rv0|ws|] eqn:Est.
  - (* Waiting *)
    eexists _, _, _. split; [exact H|]. apply cancel_round_none; auto. unfold released. rewrite Ef, Est. reflexivity.
  - (* Assigned *)
    apply bind_ok in H. destruct H as (wk0 & Hg & H). apply get_worker_find in Hg.
    apply bind_ok in H. destruct H as (wk0' & Hrm & H). eexists _, _, _. split; [exact H|].
    apply (Hsn w0 wk0 wk0'); auto. unfold released. rewrite Ef, Est, Hreq. reflexivity.
  - (* Prefilled *)
    apply bind_ok in H. destruct H as (q & _ & H). apply bind_ok in H. destruct H as (q' & _ & H).
    apply bind_ok in H. destruct H as (wk0 & Hg & H). apply get_worker_find in Hg.
    apply bind_ok in H. destruct H as (wk0' & Hrm & H). eexists _, _, _. split; [exact H|].
    assert (Hrel : released (core_of s) w id = []) by (unfold released; rewrite Ef, Est; reflexivity).
    apply (cancel_round_upd _ _ _ _ _ w0 wk0 wk0' Hw Hg (proj1 (remove_prefill_task_spec _ _ _ Hrm))); auto.
    destruct (N.eqb w0 w); auto.
  - (* Retracting *)
    apply bind_ok in H. destruct H as (c' & Hc' & H). unfold try_remove_redirection in Hc'. rewrite Hid in Hc'.
    eexists _, _, _. split; [exact H|].
    destruct (find_redirect (c_redirects (core_of s)) id) as [[w1 rv1]|] eqn:Er.
    + apply bind_ok in Hc'. destruct Hc' as (wk0 & Hg & Hc'). apply get_worker_find in Hg.
      apply bind_ok in Hc'. destruct Hc' as (rq' & Hrq' & Hc'). rewrite Hrq in Hrq'. injection Hrq' as <-.
      apply bind_ok in Hc'. destruct Hc' as (wk0' & Hrm & Hc'). injection Hc' as <-.
      apply (Hsn w1 wk0 wk0'); auto; [unfold released; rewrite Ef, Est, Er, Hreq; reflexivity|].
      intros x Hx. apply find_del_redirect_other. exact Hx.
    + apply bind_ok in Hc'. destruct Hc' as (q & _ & Hc'). apply bind_ok in Hc'. destruct Hc' as (q' & _ & Hc'). injection Hc' as <-.
      apply cancel_round_none; auto. unfold released. rewrite Ef, Est, Er. reflexivity.
  - (* Running *)
    apply bind_ok in H. destruct H as (wk0 & Hg & H). apply get_worker_find in Hg.
    apply bind_ok in H. destruct H as (wk0' & Hrm & H). eexists _, _, _. split; [exact H|].
    apply (Hsn w0 wk0 wk0'); auto. unfold released. rewrite Ef, Est, Hreq. reflexivity.
  - (* RunningMN *)
    apply bind_ok in H. destruct H as (c' & Hc' & H). destruct ws as [|w0 ws']; [discriminate|].
    eexists _, _, _. split; [exact H|].
    destruct (reset_mn_all_spec _ _ _ Hc') as (T1 & R1 & _ & _ & F1). destruct (reset_mn_all_qsame _ _ _ Hc') as (_ & _ & _ & Q1).
    assert (Hrel : released (core_of s) w id = []) by (unfold released; rewrite Ef, Est; reflexivity).
    specialize (F1 w). rewrite Hw in F1. destruct (n_mem w (w0 :: ws')) eqn:Em.
    + split; [exact T1|]. split; [exact Q1|]. split; [intros; cbn; rewrite R1; reflexivity|].
      exists (reset_mn_task wk). split; [exact F1|]. right. right. right. split; [reflexivity|]. eauto.
    + apply cancel_round_none; auto.
  - discriminate.
Qed.

Lemma cancel_release_free w ids : forall s tu ru s' tu' ru' wk a p f,
  cancel_release s ids tu ru = Ok (s', tu', ru') -> NoDup ids ->
  (forall id t ws, find_task (c_tasks (core_of s)) id = Some t -> t_state t = RunningMN ws -> n_mem w ws = false) ->
  find_worker (c_workers (core_of s)) w = Some wk -> w_assign wk = Sn a p f ->
  exists wk' a' p', find_worker (c_workers (core_of s')) w = Some wk' /\
    w_assign wk' = Sn a' p' (fold_left (fun acc id => res_add_cap acc (released (core_of s) w id) (w_res wk)) ids f) /\
    w_res wk' = w_res wk.
Proof.
  induction ids as [|id r IH]; intros s tu ru s' tu' ru' wk a p f H Hnd Hmn Hw Ha.
  - cbn in H. inversion H; subst. exists wk, a, p. auto.
  - inversion Hnd as [|? ? Hni Hnr]; subst. cbn [fold_left].
    destruct (cancel_release_head _ _ _ _ _ _ _ _ H Hw) as (s1 & tu1 & ru1 & H1 & Et & Eq & Er & wk1 & Hw1 & Hk).
    (* the round gives back [released .. id] and keeps the total *)
    assert (Hwk1 : exists a1 p1, w_assign wk1 = Sn a1 p1 (res_add_cap f (released (core_of s) w id) (w_res wk)) /\ w_res wk1 = w_res wk).
    { destruct Hk as [[-> Hrel]|[Hrm|[[Hrm Hrel]|[_ (t & ws & Hf & Est & Hm)]]]].
      - exists a, p. rewrite Hrel, res_add_nil. split; [exact Ha | reflexivity].
      - destruct (remove_sn_task_full _ _ _ _ Hrm) as (a0 & p0 & f0 & Ea0 & ->). rewrite Ha in Ea0. injection Ea0 as <- <- <-.
        do 2 eexists. split; reflexivity.
      - destruct (remove_prefill_task_full _ _ _ Hrm) as (a0 & p0 & f0 & Ea0 & ->). rewrite Ha in Ea0. injection Ea0 as <- <- <-.
        rewrite Hrel, res_add_nil. do 2 eexists. split; reflexivity.
      - rewrite (Hmn _ _ _ Hf Est) in Hm. discriminate. }
    destruct Hwk1 as (a1 & p1 & Ha1 & Hr1). rewrite <- Et in Hmn.
    destruct (IH _ _ _ _ _ _ _ _ _ _ H1 Hnr Hmn Hw1 Ha1) as (wk' & a' & p' & A & B & C).
    exists wk', a', p'. split; [exact A|]. split; [|congruence].
    rewrite B, Hr1. f_equal. apply fold_res_add_ext. intros x Hx. apply released_ext; [exact Et | exact Eq|].
    apply Er. intros ->. contradiction.
Qed.

Lemma remove_task_workers c id c' stt : remove_task c id = Ok (c', stt) -> c_workers c' = c_workers c.
Proof.
  intros H. unfold remove_task in H. destruct (find_task (c_tasks c) id) as [t|]; [|discriminate].
  destruct (t_state t); try (inversion H; subst; reflexivity).
  apply bind_ok in H. destruct H as (c2 & H2 & H).
  assert (E2 : c_workers c2 = c_workers c) by (destruct (N.eqb unfinished_deps 0); [inv_binds H2|]; inversion H2; subst; reflexivity).
  destruct (N.ltb 0 unfinished_deps); [apply bind_ok in H; destruct H as (ts & _ & H)|]; inversion H; subst; exact E2.
Qed.

Lemma remove_tasks_batched_workers l : forall c c', remove_tasks_batched c l = Ok c' -> c_workers c' = c_workers c.
Proof.
  induction l as [|id r IH]; cbn [remove_tasks_batched]; intros c c' H; [inversion H; reflexivity|].
  apply bind_ok in H. destruct H as ([c1 stt] & H1 & H). rewrite (IH _ _ H). eapply remove_task_workers; exact H1.
Qed.

Lemma handle_cancel_workers s j s' : handle_cancel s j = Ok s' ->
  exists s1 tu ru,
    cancel_release s (match find_job (hq_jobs s) j with Some jb => non_finished_task_ids jb | None => [] end) [] [] = Ok (s1, tu, ru) /\
    c_workers (core_of s') = c_workers (core_of s1).
Proof.
  unfold handle_cancel. intros H.
  destruct (find_job (hq_jobs s) j) as [jb|]; [|injection H as <-; exists s, [], []; auto].
  destruct (non_finished_task_ids jb) as [|i0 ir] eqn:En; [injection H as <-; exists s, [], []; auto|]. rewrite <- En in *.
  apply bind_ok in H. destruct H as (s1 & H1 & H). apply bind_ok in H. destruct H as (al & _ & H).
  apply bind_ok in H. destruct H as (s2 & H2 & H). injection H as <-.
  destruct (set_cancel_state_active _ _ _ _ H2) as [C2 _]. unfold core_same in C2.
  unfold on_cancel_tasks in H1.
  apply bind_ok in H1. destruct H1 as ([[s0 tu] ru] & H0 & H1). apply bind_ok in H1. destruct H1 as (c' & H3 & H1).
  exists s0, tu, ru. split; [exact H0|].
  change (core_of (emit s2 (OResp (RCancelOk (map snd (non_finished_task_ids jb)) al)))) with (core_of s2).
  rewrite C2, (send_all_core _ _ _ H1). exact (remove_tasks_batched_workers _ _ _ H3).
Qed.

Lemma WI_sn_not_mn c w wk a p f : WI c -> find_worker (c_workers c) w = Some wk -> w_assign wk = Sn a p f ->
  forall id t ws, find_task (c_tasks c) id = Some t -> t_state t = RunningMN ws -> n_mem w ws = false.
Proof.
  intros (_ & _ & H & _) Hw Ha id t ws Hf Est.
  pose proof (wi_M _ _ _ H w id) as X. unfold inM, wantM, hv, x0 in X. rewrite Hw, Ha, (TV_find _ _ _ Hf), Est in X.
  cbn [plo pl] in X. symmetry. exact X.
Qed.

Theorem cancel_free_counters ops reserve maxfill s outs j jb s' outs' w wk a p f :
  Forall op_wf ops -> run_fresh (init_sys reserve maxfill) ops = true -> run (init_sys reserve maxfill) ops = Ok (s, outs) ->
  step s (OpCancel j) = Ok (s', outs') ->
  find_job (h_jobs (s_hq s)) j = Some jb ->
  find_worker (c_workers (s_core s)) w = Some wk -> w_assign wk = Sn a p f ->
  exists wk' a' p', find_worker (c_workers (s_core s')) w = Some wk' /\
    w_assign wk' = Sn a' p' (fold_left (fun acc id => res_add_cap acc (released (s_core s) w id) (w_res wk)) (non_finished_task_ids jb) f) /\
    w_res wk' = w_res wk.
Proof.
  intros Hwf Hf Hr Hst Hj Hw Ha.
  pose proof (reachable_INV _ _ _ _ _ Hwf Hf Hr) as HI.
  cbn [step] in Hst. destruct (handle_cancel_workers _ _ _ Hst) as (s1 & tu & ru & H1 & E).
  change (hq_jobs (s, [])) with (h_jobs (s_hq s)) in H1. rewrite Hj in H1.
  change (s_core s') with (core_of (s', outs')). rewrite E.
  eapply (cancel_release_free w _ (s, []) _ _ _ _ _ wk a p f H1); [| | exact Hw | exact Ha].
  - apply nodup_non_finished. apply jok_sorted. apply (inv_hok _ HI). eapply find_job_in. exact Hj.
  - exact (WI_sn_not_mn _ _ _ _ _ _ (inv_w _ HI) Hw Ha).
Qed.

Lemma released_wantA c w id :
  released c w id = if wantA (hv x0 (TV (c_tasks c))) (find_redirect (c_redirects c)) w id then request_of c id else [].
Proof.
  unfold released, wantA, hv, x0, TV. destruct (find_task (c_tasks c) id) as [t|]; cbn [option_map plo]; [|reflexivity].
  destruct (t_state t); cbn [pl]; try reflexivity.
  destruct (find_redirect (c_redirects c) id) as [[w' v]|]; reflexivity.
Qed.

Lemma released_member c w wk a p f id : WI c -> find_worker (c_workers c) w = Some wk -> w_assign wk = Sn a p f ->
  released c w id = if tid_mem id a then request_of c id else [].
Proof.
  intros (_ & _ & H & _) Hw Ha. rewrite released_wantA, <- (wi_A _ _ _ H). unfold inA. rewrite Hw, Ha. reflexivity.
Qed.

Lemma fold_res_add_filter cap (g : tid -> list N) (b : tid -> bool) l : forall acc,
  fold_left (fun a x => res_add_cap a (if b x then g x else []) cap) l acc = fold_left (fun a x => res_add_cap a (g x) cap) (filter b l) acc.
Proof.
  induction l as [|y r IH]; intros acc; [reflexivity|]. cbn [fold_left filter].
  destruct (b y); [cbn [fold_left] | rewrite res_add_nil]; apply IH.
Qed.

Lemma filter_sorted (b : tid -> bool) l : tsorted l -> tsorted (filter b l).
Proof.
  induction l as [|y r IH]; intros Hs; [constructor|]. inversion Hs as [|? ? Hs' Hall]; subst. cbn [filter].
  destruct (b y); [|apply IH; exact Hs']. constructor; [apply IH; exact Hs'|].
  rewrite Forall_forall in *. intros x Hx. apply filter_In in Hx. apply Hall. apply Hx.
Qed.

Lemma sorted_ext l1 : forall l2, tsorted l1 -> tsorted l2 -> (forall x, In x l1 <-> In x l2) -> l1 = l2.
Proof.
  induction l1 as [|x r IH]; intros l2 S1 S2 E.
  - destruct l2 as [|y r2]; [reflexivity|]. exfalso. apply (proj2 (E y)). left. reflexivity.
  - destruct l2 as [|y r2]; [exfalso; apply (proj1 (E x)); left; reflexivity|].
    inversion S1 as [|? ? S1' A1]; subst. inversion S2 as [|? ? S2' A2]; subst. rewrite Forall_forall in A1, A2.
    assert (Exy : x = y).
    { destruct (proj1 (E x) (or_introl eq_refl)) as [->|Hx]; [reflexivity|].
      destruct (proj2 (E y) (or_introl eq_refl)) as [->|Hy]; [reflexivity|].
      exfalso. exact (tlt_irrefl _ (tlt_trans _ _ _ (A1 _ Hy) (A2 _ Hx))). }
    subst y. f_equal. apply IH; [exact S1' | exact S2'|].
    intros z. split; intros Hz.
    + destruct (proj1 (E z) (or_intror Hz)) as [->|Hz']; [exfalso; exact (tlt_irrefl _ (A1 _ Hz)) | exact Hz'].
    + destruct (proj2 (E z) (or_intror Hz)) as [->|Hz']; [exfalso; exact (tlt_irrefl _ (A2 _ Hz)) | exact Hz'].
Qed.

Lemma sorted_non_finished j : jsorted (j_tasks j) -> tsorted (non_finished_task_ids j).
Proof.
  unfold non_finished_task_ids. generalize (j_id j) as jid. intros jid.
  induction (j_tasks j) as [|[k v] r IH]; cbn [filter map jsorted]; intros Hs; [constructor|].
  destruct Hs as [Hlt Hs].
  destruct (match snd (k, v) with JW | JR => true | _ => false end); [|apply IH; exact Hs].
  cbn [map fst]. constructor; [apply IH; exact Hs|].
  rewrite Forall_forall. intros x Hin. apply in_map_iff in Hin. destruct Hin as ([k' v'] & E & Hin). cbn in E. subst x.
  apply filter_In in Hin. destruct Hin as [Hin _]. specialize (Hlt _ _ Hin).
  apply tlt_spec. right. cbn. split; [reflexivity | exact Hlt].
Qed.

Theorem cancel_free_counters_sum ops reserve maxfill s outs j jb s' outs' w wk a p f :
  Forall op_wf ops -> run_fresh (init_sys reserve maxfill) ops = true -> run (init_sys reserve maxfill) ops = Ok (s, outs) ->
  step s (OpCancel j) = Ok (s', outs') ->
  find_job (h_jobs (s_hq s)) j = Some jb ->
  find_worker (c_workers (s_core s)) w = Some wk -> w_assign wk = Sn a p f ->
  exists wk' a' p', find_worker (c_workers (s_core s')) w = Some wk' /\
    w_assign wk' = Sn a' p' (fold_left (fun acc id => res_add_cap acc (request_of (s_core s) id) (w_res wk)) (filter (fun id => N.eqb (fst id) j) a) f) /\
    w_res wk' = w_res wk /\
    (forall id, In id a' -> fst id <> j) /\ (forall id, In id p' -> fst id <> j).
Proof.
  intros Hwf Hf Hr Hst Hj Hw Ha.
  pose proof (reachable_INV _ _ _ _ _ Hwf Hf Hr) as HI.
  destruct (cancel_free_counters _ _ _ _ _ _ _ _ _ _ _ _ _ _ Hwf Hf Hr Hst Hj Hw Ha) as (wk' & a' & p' & A & B & C).
  exists wk', a', p'. split; [exact A|]. split; [|split; [exact C|]].
  - rewrite B. f_equal.
    rewrite (fold_res_add_ext _ _ _ (fun x => if tid_mem x a then request_of (s_core s) x else []))
      by (intros x _; apply (released_member _ _ _ _ _ _ _ (inv_w _ HI) Hw Ha)).
    rewrite (fold_res_add_filter _ (request_of (s_core s)) (fun x => tid_mem x a)). f_equal.
    pose proof (jok_sorted _ (inv_hok _ HI _ (find_job_in _ _ _ Hj))) as Hjs.
    assert (Hsa : tsorted a).
    { destruct (inv_w _ HI) as (_ & _ & H & _). exact (proj1 (wi_sets _ _ _ H w wk a p f Hw Ha)). }
    apply sorted_ext; [apply filter_sorted; apply sorted_non_finished; exact Hjs | apply filter_sorted; exact Hsa|].
    pose proof (find_job_id _ _ _ Hj) as Hid.
    intros x. rewrite !filter_In, (non_finished_in _ _ Hjs), Hid, tid_mem_In, N.eqb_eq. split.
    + intros [[Hx _] Hin]. auto.
    + intros [Hin Hx]. split; [|exact Hin]. split; [exact Hx|].
      (* a member of an assigned set is a core task, hence active in the job layer *)
      pose proof (WI_worker_sets_ok _ (inv_w _ HI)) as Hws. rewrite forallb_forall in Hws.
      destruct (find_worker_some _ _ _ Hw) as [Hwin _]. specialize (Hws _ Hwin). unfold worker_sets_ok in Hws. rewrite Ha in Hws.
      apply andb_true_iff in Hws. destruct Hws as [Hall _]. rewrite forallb_forall in Hall. specialize (Hall _ Hin).
      destruct (find_task (c_tasks (s_core s)) x) as [t|] eqn:Ef; [|discriminate].
      assert (Hp : present (K (s, [])) x) by (apply find_task_present; exists t; exact Ef).
      apply (cb_b _ (inv_cb _ HI)) in Hp. destruct Hp as (l & Hl & Hact).
      unfold jt in Hl. rewrite Hx in Hl. change (hq_of (s, [])) with (s_hq s) in Hl. rewrite Hj in Hl. inversion Hl; subst l. exact Hact.
  - destruct (cancel_releases_everything _ _ _ _ _ _ _ _ Hwf Hf Hr Hst) as (_ & Hwk & _).
    destruct (find_worker_some _ _ _ A) as [Hin' _]. specialize (Hwk _ Hin'). rewrite B in Hwk. exact Hwk.
Qed.

(** Non-vacuity (the history of ReleaseCancel.v): worker 1 holds two running tasks of job 1 and has
    10000 free of 30000; after the cancel it has everything back. *)
Example cancel_free_example :
  exists s outs s' outs' jb wk,
    run (init_sys 0 2) rel_ops = Ok (s, outs) /\ step s (OpCancel 1) = Ok (s', outs') /\
    find_job (h_jobs (s_hq s)) 1 = Some jb /\ find_worker (c_workers (s_core s)) 1 = Some wk /\
    w_assign wk = Sn [(1, 0); (1, 1)] [(1, 2)] [10000; 0; 0] /\
    fold_left (fun acc id => res_add_cap acc (request_of (s_core s) id) (w_res wk)) (filter (fun id => N.eqb (fst id) 1) [(1, 0); (1, 1)]) [10000; 0; 0] = [30000; 0; 0].
Proof.
  do 6 eexists. split; [vm_compute; reflexivity|]. split; [vm_compute; reflexivity|].
  split; [vm_compute; reflexivity|]. split; [vm_compute; reflexivity|]. split; vm_compute; reflexivity.
Qed.

Section MN.
Variables (w : wid) (wk0 : sworker) (mt : tid) (root : bool).

Definition mnq (wk : sworker) : Prop :=
  w_res wk = w_res wk0 /\ (w_assign wk = Mn mt root \/ w_assign wk = Sn [] [] (w_res wk0)).

Lemma mnq_no_remove_sn wk id amt wk' : mnq wk -> remove_sn_task wk id amt = Ok wk' -> False.
Proof. intros [_ [E|E]] H; unfold remove_sn_task in H; rewrite E in H; discriminate. Qed.
Lemma mnq_no_remove_prefill wk id wk' : mnq wk -> remove_prefill_task wk id = Ok wk' -> False.
Proof. intros [_ [E|E]] H; unfold remove_prefill_task in H; rewrite E in H; discriminate. Qed.

Lemma mnq_reset wk : mnq wk -> mnq (reset_mn_task wk).
Proof. intros [E _]. split; [exact E|]. right. cbn. rewrite E. reflexivity. Qed.

Lemma cancel_release_mn ids : forall s tu ru s' tu' ru' wk,
  cancel_release s ids tu ru = Ok (s', tu', ru') -> find_worker (c_workers (core_of s)) w = Some wk -> mnq wk ->
  exists wk', find_worker (c_workers (core_of s')) w = Some wk' /\ mnq wk'.
Proof.
  induction ids as [|id r IH]; intros s tu ru s' tu' ru' wk H Hw HQ.
  - cbn in H. inversion H; subst. eauto.
  - destruct (cancel_release_head _ _ _ _ _ _ _ _ H Hw) as (s1 & tu1 & ru1 & H1 & _ & _ & _ & wk1 & Hw1 & Hk).
    apply (IH _ _ _ _ _ _ wk1 H1 Hw1).
    destruct Hk as [[-> _]|[Hrm|[[Hrm _]|[-> _]]]]; [exact HQ | | | apply mnq_reset; exact HQ]; exfalso.
    + exact (mnq_no_remove_sn _ _ _ _ HQ Hrm).
    + exact (mnq_no_remove_prefill _ _ _ HQ Hrm).
Qed.
End MN.

Theorem cancel_frees_mn_worker ops reserve maxfill s outs j s' outs' w wk mt root :
  Forall op_wf ops -> run_fresh (init_sys reserve maxfill) ops = true -> run (init_sys reserve maxfill) ops = Ok (s, outs) ->
  step s (OpCancel j) = Ok (s', outs') ->
  find_worker (c_workers (s_core s)) w = Some wk -> w_assign wk = Mn mt root -> fst mt = j ->
  exists wk', find_worker (c_workers (s_core s')) w = Some wk' /\ w_assign wk' = Sn [] [] (w_res wk) /\ w_res wk' = w_res wk.
Proof.
  intros Hwf Hf Hr Hst Hw Ha Hj.
  destruct (cancel_releases_everything _ _ _ _ _ _ _ _ Hwf Hf Hr Hst) as (_ & Hwk & _).
  cbn [step] in Hst. destruct (handle_cancel_workers _ _ _ Hst) as (s1 & tu & ru & H1 & E).
  destruct (cancel_release_mn w wk mt root _ _ _ _ _ _ _ _ H1 Hw (conj eq_refl (or_introl Ha))) as (wk' & A & B & C).
  rewrite <- E in A. exists wk'. split; [exact A|]. split; [|exact B].
  destruct C as [C|C]; [|exact C]. exfalso.
  destruct (find_worker_some _ _ _ A) as [Hin _]. specialize (Hwk _ Hin). cbn in Hwk. rewrite C in Hwk. exact (Hwk Hj).
Qed.

(** Non-vacuity: a two-node task running on workers 1 and 2, then the cancel of its job. *)
Definition mn_rel_ops : list op :=
  [OpConnect [10000; 0; 0] 0; OpConnect [10000; 0; 0] 0;
   OpSubmit None [] None (mkRq 2 []) 0%Z (CMax 3) false None;
   OpSched (mkSol [] [(0, 0, [[1; 2]])] [1; 2] [])].

Example cancel_frees_mn_example :
  Forall op_wf mn_rel_ops /\ run_fresh (init_sys 0 2) mn_rel_ops = true /\
  exists s outs s' outs',
    run (init_sys 0 2) mn_rel_ops = Ok (s, outs) /\ step s (OpCancel 1) = Ok (s', outs') /\
    map w_assign (c_workers (s_core s)) = [Mn (1, 0) true; Mn (1, 0) false] /\
    map w_assign (c_workers (s_core s')) = [Sn [] [] [10000; 0; 0]; Sn [] [] [10000; 0; 0]].
Proof.
  split; [repeat constructor|]. split; [vm_compute; reflexivity|].
  do 4 eexists. split; [vm_compute; reflexivity|]. split; [vm_compute; reflexivity|]. split; vm_compute; reflexivity.
Qed.

Print Assumptions cancel_free_counters.
Print Assumptions cancel_free_counters_sum.
Print Assumptions cancel_frees_mn_worker.
