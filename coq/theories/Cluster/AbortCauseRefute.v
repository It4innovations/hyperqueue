(** C14 / C03, "tasks are aborted only with a cause": why the item list matters.

    The monitor [Monitors.abort_justified] looks up the dependencies of an aborted task with
    [find] - the FIRST entry for the task id in its [deps] accumulator, i.e. the entry of the
    most recent [ISubmitted] item that names the id.  The item list [DepOrderJournal.run_items]
    reports an accepted ARRAY submit with ALL the task ids the response lists (every id of the
    job, old and new) and no dependencies; that is harmless for [journal_dep_closed] (which looks
    at all entries), but for [abort_justified] the entries [(id, [])] of the old tasks SHADOW the
    raw dependency lists of an earlier task-graph submit to the same (open) job.  The literal
    statement "[abort_justified] accepts [run_items]" is therefore FALSE ([_refuted] below).

    The driver (ocaml/cluster/driver.ml) does not do that: it reports an array submit with the
    ids that are NEW in the response (it remembers, per job, the ids of the last response).  The
    files AbortCause*.v prove the monitor for the item list built exactly that way
    ([AbortCauseItems.run_items']). *)
From HQ Require Import Base.Prelude Cluster.Types Cluster.Core Cluster.Reactor Cluster.Worker Cluster.Server Cluster.Sys Cluster.Monitors Cluster.BijFinal Cluster.DepOrderJournal.
From Coq Require Import ZArith.
Local Open Scope N_scope.

Definition ac_rq : rqdef := mkRq 0 [10000; 0; 0].

(** An open job 1; a graph (1,0) <- (1,1); then an array submit of one more task to the same job;
    (1,0) runs on worker 1 and fails: (1,1) is aborted as its dependent. *)
Definition ac_shadow_ops : list op :=
  [OpConnect [20000; 0; 0] 0;
   OpOpen None;
   OpSubmitG (Some 1) [ac_rq] [(0, 0, 0%Z, CMax 3, []); (1, 0, 0%Z, CMax 3, [0])] None;
   OpSubmit (Some 1) [] None ac_rq 0%Z (CMax 3) false None;
   OpSched (mkSol [(0, 0, [(1, 2)])] [] [1] []);
   OpDDown 1 []; OpDDown 1 []; OpDUp 1; OpEnd 1 (1, 0) EndFail; OpDUp 1].

Example abort_justified_run_items_refuted :
  exists s items,
    Forall op_wf ac_shadow_ops /\
    run_items (init_sys 0 2) ac_shadow_ops = Ok (s, items) /\
    In (ISubmitted 1 [(0, []); (1, [0])]) items /\
    In (ISubmitted 1 [(0, []); (1, []); (2, [])]) items /\
    (exists a c, items = a ++ IEv (EvAborted [(1, 1)]) :: IEv (EvFailed (1, 0) FTask) :: c) /\
    abort_justified [] [] [] [] items = false.
Proof.
  do 2 eexists. split; [repeat constructor|]. split; [vm_compute; reflexivity|].
  split; [vm_compute; tauto|]. split; [vm_compute; tauto|]. split; [|vm_compute; reflexivity].
  eexists (_ :: _ :: _ :: _ :: _ :: _ :: _ :: _ :: _ :: _ :: []), []. reflexivity.
Qed.
