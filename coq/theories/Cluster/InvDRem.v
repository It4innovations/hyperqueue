(** C03, the dependency invariant, part 3: tasks leave the core - [remove_task] and the loops over
    it ([remove_tasks_batched], [remove_waiting_consumers]), [wake_consumers], and the closure
    property of [recursive_consumers] (its fuel always suffices). *)
From HQ Require Import Base.Prelude Cluster.Types Cluster.Core Cluster.Reactor Cluster.Worker Cluster.Server Cluster.Sys Cluster.ProofsJob Cluster.ProofsMore Cluster.ProofsTerminal Cluster.ProofsStep Cluster.BijBase Cluster.BijCore Cluster.BijHq Cluster.BijSt Cluster.BijReact Cluster.FrameGen Cluster.CrashFrame Cluster.InvQBase Cluster.InvDBase Cluster.InvDSpec.
From HQ Require Import Cluster.ModelFacts.
From Coq Require Import ZArith Lia Sorting.Sorted.
Local Open Scope N_scope.

Arguments N.add : simpl never.
Arguments N.sub : simpl never.

(** The invariant of a core, and what an operation without new tasks establishes. *)
Definition GD (c : core) : Prop := TS c /\ DI (fm c).
Definition RL (c c' : core) : Prop := GD c' /\ dsub (fm c) (fm c').

Lemma RL_scr c c' : GD c -> scr c c' -> RL c c'.
Proof. intros [T D] S. split; [split; [apply S; exact T | eapply DI_SC; [exact D | apply S]] | apply scr_dsub; exact S]. Qed.
Lemma RL_trans c1 c2 c3 : RL c1 c2 -> RL c2 c3 -> RL c1 c3.
Proof. intros [_ A] [G B]. split; [exact G | eapply dsub_trans; eassumption]. Qed.
Lemma RL_refl c : GD c -> RL c c.
Proof. intros G. split; [exact G | apply dsub_refl]. Qed.
(** [RL] as a relation on states, for the walks over the reactor. *)
Definition RLs (a b : st) : Prop := GD (core_of a) -> RL (core_of a) (core_of b).
Lemma RLs_refl s : RLs s s.
Proof. exact (RL_refl _). Qed.
Lemma RLs_trans a b c : RLs a b -> RLs b c -> RLs a c.
Proof. intros A B G. exact (RL_trans _ _ _ (A G) (B (proj1 (A G)))). Qed.
Lemma GD_tasks c c' : c_tasks c' = c_tasks c -> GD c -> GD c'.
Proof. intros E [T D]. unfold GD, TS, fm in *. rewrite E. auto. Qed.

Lemma remove_consumer_from_fm deps : forall ts cid ts',
  NoDup deps -> remove_consumer_from ts deps cid = Ok ts' ->
  forall x, find_task ts' x = rmc (find_task ts) deps cid x.
Proof.
  induction deps as [|d r IH]; cbn [remove_consumer_from]; intros ts cid ts' Hnd H x.
  - inversion H; subst. unfold rmc. cbn [tid_mem]. destruct (find_task ts' x); reflexivity.
  - inversion Hnd as [|? ? Hn Hr]; subst.
    destruct (find_task ts d) as [input|] eqn:Ef.
    + destruct (tid_mem cid (t_consumers input)); [|discriminate].
      destruct (find_task_some _ _ _ Ef) as [_ Hid].
      rewrite (IH _ _ _ Hr H x). unfold rmc. rewrite find_set_task. cbn [t_id with_consumers tid_mem]. rewrite Hid.
      destruct (tid_eqb x d) eqn:E.
      * apply tid_eqb_eq in E. subst x. rewrite Ef. cbn [orb].
        apply tid_mem_nIn in Hn. rewrite Hn. reflexivity.
      * cbn [orb]. reflexivity.
    + rewrite (IH _ _ _ Hr H x). unfold rmc. cbn [tid_mem]. destruct (tid_eqb x d) eqn:E; [|reflexivity].
      apply tid_eqb_eq in E. subst x. rewrite Ef. reflexivity.
Qed.

Lemma fm_del c id x : TS c -> find_task (del_task (c_tasks c) id) x = mdel (fm c) id x.
Proof. intros Hs. unfold mdel, fm. apply find_del_task. exact Hs. Qed.

Lemma remove_task_fm c id c' stt :
  TS c -> remove_task c id = Ok (c', stt) ->
  exists t, fm c id = Some t /\ stt = t_state t /\ TS c' /\
    (NoDup (t_deps t) ->
     forall x, fm c' x = if match t_state t with Waiting n => N.ltb 0 n | _ => false end
                         then rmc (mdel (fm c) id) (t_deps t) id x else mdel (fm c) id x).
Proof.
  intros Hs H. pose proof (remove_task_csub _ _ _ _ Hs H) as [Hs' _].
  unfold remove_task in H. destruct (find_task (c_tasks c) id) as [t|] eqn:Ef; [|discriminate].
  exists t. split; [exact Ef|].
  destruct (t_state t) eqn:Est; try (inversion H; subst; split; [reflexivity | split; [exact Hs'|]]; intros _ x; unfold fm at 1; cbn [c_tasks with_tasks]; apply fm_del; exact Hs).
  apply bind_ok in H. destruct H as (c2 & H2 & H).
  assert (E2 : c_tasks c2 = del_task (c_tasks c) id).
  { destruct (N.eqb unfinished_deps 0); [|inversion H2; reflexivity]. inv_binds H2. inversion H2; reflexivity. }
  destruct (N.ltb 0 unfinished_deps).
  - apply bind_ok in H. destruct H as (ts & Hr & H). inversion H; subst. split; [reflexivity | split; [exact Hs'|]].
    intros Hnd x. unfold fm at 1. cbn [c_tasks with_tasks]. rewrite E2 in Hr.
    rewrite (remove_consumer_from_fm _ _ _ _ Hnd Hr x). unfold rmc. rewrite (fm_del _ _ _ Hs). reflexivity.
  - inversion H; subst. split; [reflexivity | split; [exact Hs'|]]. intros _ x. unfold fm at 1. rewrite E2. apply fm_del. exact Hs.
Qed.

Lemma remove_task_DX X c id c' stt :
  TS c -> DX X (fm c) -> In id X -> remove_task c id = Ok (c', stt) ->
  TS c' /\ DX X (fm c') /\ fm c' id = None /\ (forall x, fm c x = None -> fm c' x = None) /\ dsub (fm c) (fm c').
Proof.
  intros Hs D HX H. destruct (remove_task_fm _ _ _ _ Hs H) as (t & Ef & _ & Hs' & Hfm).
  specialize (Hfm (dx_nd _ _ D _ _ Ef)).
  assert (Hr : forall x, fm c' x = rmc (mdel (fm c) id) (t_deps t) id x).
  { intros x. rewrite Hfm.
    destruct (match t_state t with Waiting n => N.ltb 0 n | _ => false end) eqn:Eb; [reflexivity|].
    symmetry. apply rmc_nodeps.
    pose proof (dx_cnt _ _ D _ _ Ef) as C. unfold cnt_ok in C. destruct (t_state t); try exact C.
    destruct C as [C _]. specialize (C HX). apply N.ltb_ge in Eb. lia. }
  split; [exact Hs'|]. split; [eapply DX_remove; eassumption|].
  assert (Hsome : forall x tx', fm c' x = Some tx' -> x <> id /\ exists tx, fm c x = Some tx /\ t_deps tx' = t_deps tx).
  { intros x tx' Ex. rewrite Hr in Ex. unfold rmc, mdel in Ex. destruct (tid_eqb x id) eqn:Exi; [discriminate|].
    apply tid_eqb_neq in Exi. split; [exact Exi|]. destruct (fm c x) as [tx|]; [|discriminate]. exists tx. split; [reflexivity|].
    destruct (tid_mem x (t_deps t)); inversion Ex; reflexivity. }
  split; [|split].
  - destruct (fm c' id) eqn:E; [|reflexivity]. destruct (Hsome _ _ E) as [Hne _]. congruence.
  - intros x Hn. destruct (fm c' x) eqn:E; [|reflexivity]. destruct (Hsome _ _ E) as (_ & tx & Etx & _). congruence.
  - intros x tx' Ex. destruct (Hsome _ _ Ex) as (_ & tx & Etx & Ed). eauto.
Qed.

Lemma remove_tasks_batched_DX X l : forall c c',
  TS c -> DX X (fm c) -> incl l X -> remove_tasks_batched c l = Ok c' ->
  TS c' /\ DX X (fm c') /\ (forall x, In x l -> fm c' x = None) /\ (forall x, fm c x = None -> fm c' x = None) /\ dsub (fm c) (fm c').
Proof.
  induction l as [|id r IH]; cbn [remove_tasks_batched]; intros c c' Hs D Hi H.
  - inversion H; subst. split; [exact Hs|]. split; [exact D|]. split; [intros x []|]. split; [auto | apply dsub_refl].
  - apply bind_ok in H. destruct H as ([c1 stt] & H1 & H).
    destruct (remove_task_DX X _ _ _ _ Hs D (Hi _ (or_introl eq_refl)) H1) as (T1 & D1 & N1 & K1 & S1).
    destruct (IH _ _ T1 D1 (fun x Hx => Hi x (or_intror Hx)) H) as (T2 & D2 & N2 & K2 & S2).
    split; [exact T2|]. split; [exact D2|]. split; [|split].
    + intros x [<-|Hx]; [apply K2; exact N1 | apply N2; exact Hx].
    + intros x Hx. apply K2, K1, Hx.
    + eapply dsub_trans; eassumption.
Qed.

(** [remove_waiting_consumers] is [remove_tasks_batched] with a check of the removed states. *)
Lemma remove_waiting_consumers_batched l : forall c c', remove_waiting_consumers c l = Ok c' -> remove_tasks_batched c l = Ok c'.
Proof.
  induction l as [|id r IH]; cbn [remove_waiting_consumers remove_tasks_batched]; intros c c' H; [exact H|].
  apply bind_ok in H. destruct H as ([c1 stt] & H1 & H). rewrite H1. cbn [bind].
  destruct stt; try discriminate. apply IH. exact H.
Qed.

Lemma remove_waiting_consumers_DX X l : forall c c',
  TS c -> DX X (fm c) -> incl l X -> remove_waiting_consumers c l = Ok c' ->
  TS c' /\ DX X (fm c') /\ (forall x, In x l -> fm c' x = None) /\ (forall x, fm c x = None -> fm c' x = None) /\ dsub (fm c) (fm c').
Proof.
  intros c c' Hs D Hi H. eapply remove_tasks_batched_DX; [exact Hs | exact D | exact Hi | apply remove_waiting_consumers_batched; exact H].
Qed.

Lemma wake_consumers_fm csm : forall c ret c' ret',
  NoDup csm -> wake_consumers c csm ret = Ok (c', ret') ->
  (TS c -> TS c') /\ forall x, fm c' x = woken (fm c) csm x.
Proof.
  induction csm as [|y r IH]; cbn [wake_consumers]; intros c ret c' ret' Hnd H.
  - inversion H; subst. split; [auto|]. intros x. reflexivity.
  - inversion Hnd as [|? ? Hn Hr]; subst.
    apply bind_ok in H. destruct H as (t & Ht & H). apply get_task_find in Ht.
    destruct (find_task_some _ _ _ Ht) as [_ Hid].
    destruct (t_state t) as [n| | | | | |] eqn:Est; try discriminate.
    destruct (N.eqb n 0); [discriminate|].
    set (t' := with_state t (Waiting (n - 1))) in *.
    assert (Hstep : forall c1 rt, c_tasks c1 = set_task (c_tasks c) t' -> wake_consumers c1 r rt = Ok (c', ret') ->
              (TS c -> TS c') /\ forall x, fm c' x = woken (fm c) (y :: r) x).
    { intros c1 rt E1 H1. destruct (IH _ _ _ _ Hr H1) as [T1 F1]. split.
      - intros Hs. apply T1. unfold TS. rewrite E1.
        assert (Efx : find_task (c_tasks c) (t_id t') = Some t) by (cbn; rewrite Hid; exact Ht).
        rewrite (set_task_ids _ _ _ Hs Efx). exact Hs.
      - intros x. rewrite F1. unfold woken, fm. rewrite E1, find_set_task. cbn [tid_mem]. change (t_id t') with (t_id t). rewrite Hid.
        destruct (tid_eqb x y) eqn:E.
        + apply tid_eqb_eq in E. subst x. cbn [orb]. apply tid_mem_nIn in Hn. rewrite Hn, Ht. cbn [option_map].
          unfold dec_state. rewrite Est. reflexivity.
        + cbn [orb]. reflexivity. }
    destruct (N.eqb (n - 1) 0).
    + apply bind_ok in H. destruct H as ([qs rt] & _ & H). eapply Hstep; [|exact H]. reflexivity.
    + eapply Hstep; [|exact H]. reflexivity.
Qed.

Definition cclosed (m : tmap) (A : list tid) : Prop :=
  forall x tx y, In x A -> m x = Some tx -> In y (t_consumers tx) -> In y A.
(** what the loop needs to know about the task list *)
Definition WFc (ts : list task) : Prop :=
  forall x tx, find_task ts x = Some tx -> NoDup (t_consumers tx) /\ forall y, In y (t_consumers tx) -> find_task ts y <> None.

Lemma tia_nodup_len xs : forall l,
  NoDup xs -> NoDup l -> (forall x, In x xs -> ~ In x l) ->
  NoDup (tid_insert_all xs l) /\ length (tid_insert_all xs l) = (length l + length xs)%nat.
Proof.
  unfold tid_insert_all. induction xs as [|x r IH]; cbn [fold_left]; intros l Hx Hl Hd; [split; [exact Hl | cbn; lia]|].
  inversion Hx as [|? ? Hn Hr]; subst.
  assert (Hxl : ~ In x l) by (apply Hd; left; reflexivity).
  destruct (IH (tid_insert x l) Hr (tid_insert_NoDup _ _ Hxl Hl)) as [A B].
  { intros z Hz Hin. destruct (tid_insert_in _ _ _ Hin) as [->|Hin']; [contradiction | exact (Hd z (or_intror Hz) Hin')]. }
  split; [exact A|]. rewrite B, (tid_insert_length _ _ Hxl). cbn [length]. lia.
Qed.

Lemma find_some_in_ids ts x : find_task ts x <> None -> In x (map t_id ts).
Proof. intros H. destruct (in_dec tid_dec x (map t_id ts)) as [Hin|Hout]; [exact Hin|]. apply find_task_none in Hout. contradiction. Qed.

Lemma collect_closed fuel : forall ts frontier acc r,
  WFc ts -> NoDup acc -> incl frontier acc -> (forall x, In x acc -> find_task ts x <> None) ->
  (forall x, In x acc -> In x frontier \/ (forall tx y, find_task ts x = Some tx -> In y (t_consumers tx) -> In y acc)) ->
  (length frontier + length ts <= fuel + length acc)%nat ->
  collect_consumers fuel ts frontier acc = Ok r -> incl acc r /\ cclosed (find_task ts) r.
Proof.
  induction fuel as [|k IH]; intros ts frontier acc r W Hnd Hfa Hdom Hcl Hm H.
  - destruct frontier as [|id rest]; cbn [collect_consumers] in H.
    + inversion H; subst. split; [apply incl_refl|]. intros x tx y Hx Ex Hy. destruct (Hcl x Hx) as [[]|Hc]. eapply Hc; eassumption.
    + exfalso. assert (Hle : (length acc <= length (map t_id ts))%nat).
      { apply NoDup_incl_length; [exact Hnd|]. intros x Hx. apply find_some_in_ids. apply Hdom. exact Hx. }
      rewrite map_length in Hle. cbn [length] in Hm. lia.
  - destruct frontier as [|id rest]; cbn [collect_consumers] in H.
    + inversion H; subst. split; [apply incl_refl|]. intros x tx y Hx Ex Hy. destruct (Hcl x Hx) as [[]|Hc]. eapply Hc; eassumption.
    + apply bind_ok in H. destruct H as (t & Ht & H). apply get_task_find in Ht.
      destruct (W _ _ Ht) as [Hnc Hcd].
      set (new := filter (fun c => negb (tid_mem c acc)) (t_consumers t)) in *.
      assert (Hnew : forall y, In y new <-> In y (t_consumers t) /\ ~ In y acc).
      { intros y. unfold new. rewrite filter_In, negb_true_iff, tid_mem_nIn. reflexivity. }
      destruct (tia_nodup_len new acc (NoDup_filter' _ _ Hnc) Hnd (fun x Hx => proj2 (proj1 (Hnew x) Hx))) as [Nd' Len'].
      destruct (IH ts (rest ++ new) (tid_insert_all new acc) r W Nd') as [I1 I2]; [ | | | | exact H | ].
      * intros x Hx. apply tid_insert_all_iff. apply in_app_iff in Hx. destruct Hx as [Hx|Hx]; [right; apply Hfa; right; exact Hx | left; exact Hx].
      * intros x Hx. apply tid_insert_all_iff in Hx. destruct Hx as [Hx|Hx]; [apply Hcd; apply Hnew; exact Hx | apply Hdom; exact Hx].
      * intros x Hx. apply tid_insert_all_iff in Hx. destruct Hx as [Hx|Hx]; [left; apply in_app_iff; right; exact Hx|].
        destruct (Hcl x Hx) as [[<-|Hr]|Hc].
        -- right. intros tx y Ex Hy. rewrite Ht in Ex. inversion Ex; subst tx. apply tid_insert_all_iff.
           destruct (in_dec tid_dec y acc) as [Ha|Hna]; [right; exact Ha | left; apply Hnew; split; assumption].
        -- left. apply in_app_iff. left; exact Hr.
        -- right. intros tx y Ex Hy. apply tid_insert_all_iff. right. eapply Hc; eassumption.
      * rewrite app_length, Len'. cbn [length] in Hm. lia.
      * split; [|exact I2]. intros x Hx. apply I1. apply tid_insert_all_iff. right; exact Hx.
Qed.

Lemma recursive_consumers_closed ts t csm :
  WFc ts -> NoDup (t_consumers t) -> (forall y, In y (t_consumers t) -> find_task ts y <> None) ->
  recursive_consumers ts t = Ok csm -> incl (t_consumers t) csm /\ cclosed (find_task ts) csm.
Proof.
  intros W Hnc Hcd H. unfold recursive_consumers in H.
  destruct (tia_nodup_len (t_consumers t) [] Hnc (NoDup_nil _) (fun x _ Hx => Hx)) as [Nd Len].
  assert (A1 : incl (t_consumers t) (tid_insert_all (t_consumers t) [])) by (intros x Hx; apply tid_insert_all_iff; left; exact Hx).
  assert (A2 : forall x, In x (tid_insert_all (t_consumers t) []) -> find_task ts x <> None).
  { intros x Hx. apply tid_insert_all_iff in Hx. destruct Hx as [Hx|[]]. apply Hcd; exact Hx. }
  assert (A3 : forall x, In x (tid_insert_all (t_consumers t) []) ->
            In x (t_consumers t) \/ (forall tx y, find_task ts x = Some tx -> In y (t_consumers tx) -> In y (tid_insert_all (t_consumers t) []))).
  { intros x Hx. apply tid_insert_all_iff in Hx. destruct Hx as [Hx|[]]. left; exact Hx. }
  assert (A4 : (length (t_consumers t) + length ts <= S (length ts) * S (length ts) + length (tid_insert_all (t_consumers t) []))%nat).
  { rewrite Len. cbn [length]. lia. }
  destruct (collect_closed _ _ _ _ _ W Nd A1 A2 A3 A4 H) as [I1 I2].
  split; [|exact I2]. intros x Hx. apply I1. apply A1. exact Hx.
Qed.

Lemma DX_WFc X c : DX X (fm c) -> WFc (c_tasks c).
Proof.
  intros D x tx Ex. split; [exact (dx_nc _ _ D _ _ Ex)|]. intros y Hy.
  destruct (dx_cons _ _ D _ _ _ Ex Hy) as (ct & Ec & _). unfold fm in Ec. congruence.
Qed.

(** The failed / canceled task together with its transitive consumers is consumer-closed. *)
Lemma closed_with_root m csm id t :
  m id = Some t -> incl (t_consumers t) csm -> cclosed m csm -> cclosed m (csm ++ [id]).
Proof.
  intros Ef Hi Hc x tx y Hx Ex Hy. apply in_app_iff in Hx. apply in_app_iff. destruct Hx as [Hx|[<-|[]]].
  - left. eapply Hc; eassumption.
  - rewrite Ef in Ex. inversion Ex; subst tx. left. apply Hi. exact Hy.
Qed.
