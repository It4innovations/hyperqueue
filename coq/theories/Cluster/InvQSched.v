(** The queue invariant, part 8: one scheduling round. *)
From HQ Require Import Base.Prelude Cluster.Types Cluster.Core Cluster.Reactor Cluster.Worker Cluster.Server Cluster.Sys Cluster.Monitors Cluster.ProofsJob Cluster.ProofsMore Cluster.ProofsTerminal Cluster.ProofsStep Cluster.BijBase Cluster.BijCore Cluster.BijHq Cluster.BijSt Cluster.BijReact Cluster.FrameGen Cluster.CrashFrame Cluster.InvQBase Cluster.InvQTake Cluster.InvQInv Cluster.InvQOps Cluster.InvQReact.
From HQ Require Import Cluster.ModelFacts.
From Coq Require Import ZArith Lia Sorting.Sorted.
Local Open Scope N_scope.

Arguments N.add : simpl never.
Arguments N.sub : simpl never.

Lemma map_one_QI D c m id w v rqres c' m' :
  ~ In id D -> QI (exL Nowhere (id :: D) none) [] c -> map_one c m id w v rqres = Ok (c', m') -> QI (exL Nowhere D none) [] c'.
Proof.
  intros Hnd V H. unfold map_one in H.
  apply bind_ok in H. destruct H as (wk & _ & H). apply bind_ok in H. destruct H as (wk' & _ & H).
  apply bind_ok in H. destruct H as (t & Ht & H). apply get_task_find in Ht. cbn [c_tasks upd_worker with_workers] in Ht.
  assert (Eid : exL Nowhere (id :: D) none id = Some Nowhere) by (apply exL_in; left; reflexivity).
  assert (Hnr : find_redirect (c_redirects c) id = None) by (eapply ex_no_redirect; [exact V | exact Eid]).
  assert (Eo : forall x, x <> id -> exL Nowhere D none x = exL Nowhere (id :: D) none x).
  { intros x Hne. rewrite (exL_cons Nowhere id D). apply tid_eqb_neq in Hne. rewrite Hne. reflexivity. }
  assert (En : exL Nowhere D none id = None) by (apply exL_notin; exact Hnd).
  destruct (t_state t) as [n| |old|old| | |] eqn:Est; try discriminate.
  - inversion H; subst; clear H. qi_simpl.
    eapply QV_settle; [exact V | exact Ht | exact Eid | exact (find_task_id _ _ _ Ht) | reflexivity | reflexivity | exact Eo | | cbn; discriminate].
    unfold exp_place. rewrite En. reflexivity.
  - destruct (find_worker (c_workers (upd_worker c wk')) old) as [wo|]; [|discriminate].
    apply bind_ok in H. destruct H as (wo' & _ & H). cbn [c_redirects upd_worker with_workers] in H. rewrite Hnr in H.
    inversion H; subst; clear H. qi_simpl.
    eapply QV_task; [exact V | exact Ht | exact (find_task_id _ _ _ Ht) | reflexivity | reflexivity | apply set_redirect_sorted; exact (qv_rs _ _ _ _ _ _ V) | | exact Eo | | |].
    + intros x Hne. rewrite find_set_redirect. apply tid_eqb_neq in Hne. rewrite Hne. reflexivity.
    + unfold exp_place. rewrite En, Eid. cbn. rewrite find_set_redirect, (proj2 (tid_eqb_eq _ _) eq_refl). reflexivity.
    + intros v0 Hv. split; [exact En | cbn; eauto].
    + cbn. discriminate.
  - cbn [c_redirects upd_worker with_workers] in H. rewrite Hnr in H. inversion H; subst; clear H. qi_simpl.
    eapply QV_redirect; [exact V | exact Ht | apply set_redirect_sorted; exact (qv_rs _ _ _ _ _ _ V) | | exact Eo | |].
    + intros x Hne. rewrite find_set_redirect. apply tid_eqb_neq in Hne. rewrite Hne. reflexivity.
    + unfold exp_place. rewrite En, Eid, Est. cbn. rewrite find_set_redirect, (proj2 (tid_eqb_eq _ _) eq_refl). reflexivity.
    + intros v0 Hv. split; [exact En | eauto].
Qed.

Lemma rr_pass_QI counts : forall c m tasks v rqres c' m' counts' rest,
  NoDup tasks -> QI (exL Nowhere tasks none) [] c -> rr_pass c m counts tasks v rqres = Ok (c', m', counts', rest) ->
  QI (exL Nowhere rest none) [] c' /\ NoDup rest.
Proof.
  induction counts as [|[w n] r IH]; intros c m tasks v rqres c' m' counts' rest Hnd V H.
  - destruct tasks; cbn [rr_pass] in H; inversion H; subst; split; assumption.
  - destruct tasks as [|id tl]; cbn [rr_pass] in H; [inversion H; subst; split; assumption|].
    destruct (N.ltb 0 n).
    + apply bind_ok in H. destruct H as ([c1 m1] & H1 & H).
      apply bind_ok in H. destruct H as ([[[c2 m2] r'] tl'] & H2 & H). inversion H; subst; clear H.
      inversion Hnd as [|? ? Hni Hnt]; subst.
      pose proof (map_one_QI _ _ _ _ _ _ _ _ _ Hni V H1) as V1.
      eapply IH; eassumption.
    + apply bind_ok in H. destruct H as ([[[c2 m2] r'] tl'] & H2 & H). inversion H; subst; clear H.
      eapply IH; eassumption.
Qed.

Lemma rr_loop_QI fuel : forall c m counts tasks v rqres c' m',
  NoDup tasks -> QI (exL Nowhere tasks none) [] c -> rr_loop fuel c m counts tasks v rqres = Ok (c', m') -> QI none [] c'.
Proof.
  induction fuel as [|k IH]; intros c m counts tasks v rqres c' m' Hnd V H; destruct tasks as [|id tl]; cbn [rr_loop] in H;
    try (inversion H; subst; exact V); try discriminate.
  apply bind_ok in H. destruct H as ([[[c1 m1] counts1] rest] & H1 & H).
  destruct (rr_pass_QI _ _ _ _ _ _ _ _ _ _ Hnd V H1) as [V1 N1].
  eapply IH; eassumption.
Qed.

Lemma map_sn_QI sol l : forall c m c' m', QI none [] c -> map_sn c m sol l = Ok (c', m') -> QI none [] c'.
Proof.
  induction l as [|[[rq v] counts] r IH]; cbn [map_sn]; intros c m c' m' V H; [inversion H; subst; exact V|].
  apply bind_ok in H. destruct H as (rqd & _ & H). apply bind_ok in H. destruct H as (q & Hq & H).
  apply bind_ok in H. destruct H as ([tasks q'] & Ht & H). apply bind_ok in H. destruct H as ([c2 m2] & H2 & H).
  apply nth_queue_ok in Hq.
  pose proof (nth_error_Forall _ _ _ _ (qv_wf _ _ _ _ _ _ V) Hq) as W.
  destruct (q_take_tasks_D _ _ _ _ _ W Ht) as [T N].
  eapply IH; [|exact H]. eapply rr_loop_QI; [| |exact H2].
  - apply N. eapply QV_uniq; [exact V | exact Hq].
  - unfold QI. cbn [c_tasks c_queues c_redirects c_rqs with_queues]. eapply QV_take; eassumption.
Qed.

Lemma map_mn_sets_QI sets : forall c rq mn c' mn', QI none [] c -> map_mn_sets c rq mn sets = Ok (c', mn') -> QI none [] c'.
Proof.
  induction sets as [|ws r IH]; cbn [map_mn_sets]; intros c rq mn c' mn' V H; [inversion H; subst; exact V|].
  apply bind_ok in H. destruct H as (q & Hq & H). apply nth_queue_ok in Hq.
  destruct (q_take_one q) as [[id q']|] eqn:Eo; [|discriminate].
  apply bind_ok in H. destruct H as (c2 & H2 & H). apply bind_ok in H. destruct H as (t & Ht & H). apply get_task_find in Ht.
  destruct (t_state t) as [n| | | | | |] eqn:Est; try discriminate. destruct n; [|discriminate].
  eapply IH; [|exact H].
  pose proof (nth_error_Forall _ _ _ _ (qv_wf _ _ _ _ _ _ V) Hq) as W.
  pose proof (q_take_one_spec _ _ _ W Eo) as T.
  assert (V1 : QI (exL Nowhere [id] none) [] (with_queues c (set_queue (c_queues c) (N.to_nat rq) q'))).
  { unfold QI. cbn [c_tasks c_queues c_redirects c_rqs with_queues]. eapply QV_take; eassumption. }
  pose proof (QI_same _ _ _ _ (set_mn_workers_qsame _ _ _ _ _ H2) V1) as V2.
  assert (Eid : exL Nowhere [id] none id = Some Nowhere) by (apply exL_in; left; reflexivity).
  qi_simpl.
  eapply QV_settle; [exact V2 | exact Ht | exact Eid | exact (find_task_id _ _ _ Ht) | reflexivity | reflexivity | | reflexivity | cbn; discriminate].
  intros x Hne. unfold exL, none. cbn [tid_mem]. apply tid_eqb_neq in Hne. rewrite Hne. reflexivity.
Qed.

Lemma map_mn_QI l : forall c mn c' mn', QI none [] c -> map_mn c mn l = Ok (c', mn') -> QI none [] c'.
Proof.
  induction l as [|[[rq v] sets] r IH]; cbn [map_mn]; intros c mn c' mn' V H; [inversion H; subst; exact V|].
  apply bind_ok in H. destruct H as ([c1 mn1] & H1 & H).
  eapply IH; [|exact H]. eapply map_mn_sets_QI; eassumption.
Qed.

Lemma prefill_mark_QI l : forall c w c', QI (exL Prefill l none) [] c -> prefill_mark c w l = Ok c' -> QI none [] c'.
Proof.
  induction l as [|id r IH]; cbn [prefill_mark]; intros c w c' V H; [inversion H; subst; exact V|].
  apply bind_ok in H. destruct H as (t & Ht & H). apply get_task_find in Ht.
  destruct (negb (is_waiting t)); [discriminate|].
  apply bind_ok in H. destruct H as (wk & _ & H). apply bind_ok in H. destruct H as (wk' & _ & H).
  eapply IH; [|exact H].
  assert (Eid : exL Prefill (id :: r) none id = Some Prefill) by (apply exL_in; left; reflexivity).
  qi_simpl.
  eapply QV_settle; [exact V | exact Ht | exact Eid | exact (find_task_id _ _ _ Ht) | reflexivity | reflexivity | | | cbn; discriminate].
  - intros x Hne. rewrite (exL_cons Prefill id r). apply tid_eqb_neq in Hne. rewrite Hne. reflexivity.
  - unfold exp_place, exL, none. destruct (tid_mem id r); reflexivity.
Qed.

Lemma prefill_workers_QI ws : forall c m qi psize c' m', QI none [] c -> prefill_workers c m qi psize ws = Ok (c', m') -> QI none [] c'.
Proof.
  induction ws as [|w r IH]; cbn [prefill_workers]; intros c m qi psize c' m' V H; [inversion H; subst; exact V|].
  apply bind_ok in H. destruct H as (q & Hq & H). apply bind_ok in H. destruct H as ([ids q'] & Ht & H).
  apply bind_ok in H. destruct H as (c2 & H2 & H). apply nth_queue_ok in Hq.
  eapply IH; [|exact H].
  pose proof (nth_error_Forall _ _ _ _ (qv_wf _ _ _ _ _ _ V) Hq) as W.
  destruct (q_take_prefill_spec _ _ _ _ W Ht) as (pe & T).
  eapply prefill_mark_QI; [|exact H2].
  unfold QI. cbn [c_tasks c_queues c_redirects c_rqs with_queues]. eapply QV_move; eassumption.
Qed.

Lemma prefill_queues_QI n : forall c m worder qi top c' m',
  QI none [] c -> prefill_queues c m worder qi n top = Ok (c', m') -> QI none [] c'.
Proof.
  induction n as [|k IH]; cbn [prefill_queues]; intros c m worder qi top c' m' V H; [inversion H; subst; exact V|].
  apply bind_ok in H. destruct H as (q & _ & H).
  destruct (q_top_priority q) as [tp|]; [|eapply IH; eassumption].
  destruct (negb (Z.eqb tp top)); [eapply IH; eassumption|].
  destruct (N.eqb _ 0); [eapply IH; eassumption|].
  destruct (existsb _ (q_top_task_ids q)).
  - destruct (forallb _ (q_top_task_ids q)); [eapply IH; eassumption | discriminate].
  - match type of H with match ?ws with [] => _ | _ => _ end = _ => destruct ws eqn:Ews end; [eapply IH; eassumption|].
    destruct (N.eqb _ 0); [eapply IH; eassumption|].
    apply bind_ok in H. destruct H as ([c1 m1] & H1 & H).
    eapply IH; [|exact H]. eapply prefill_workers_QI; eassumption.
Qed.

Lemma run_scheduling_QI s sol s' : QI none [] (core_of s) -> run_scheduling s sol = Ok s' -> QI none [] (core_of s').
Proof.
  unfold run_scheduling. intros V H. destruct (negb (perm_of_set _ _)); [discriminate|].
  apply bind_ok in H. destruct H as ([c1 m1] & H1 & H).
  apply bind_ok in H. destruct H as ([c2 mn] & H2 & H).
  apply bind_ok in H. destruct H as ([c3 m3] & H3 & H).
  apply bind_ok in H. destruct H as (s1 & H4 & H).
  apply bind_ok in H. destruct H as (s2 & H5 & H). inversion H; subst; clear H.
  pose proof (map_sn_QI _ _ _ _ _ _ V H1) as V1.
  pose proof (map_mn_QI _ _ _ _ _ V1 H2) as V2.
  assert (V3 : QI none [] c3).
  { destruct (queues_top_priority (c_queues c2)); [|inversion H3; subst; exact V2]. eapply prefill_queues_QI; eassumption. }
  change (QI none [] (core_of s2)). rewrite (send_mn_core _ _ _ H5), (send_mapping_core _ _ _ H4). exact V3.
Qed.
