(** Protocol invariant, part 12: the facts [UH] that [PROTO] borrows from the other invariants are
    part of [INV]. *)
From HQ Require Import Base.Prelude Cluster.Types Cluster.Core Cluster.Reactor Cluster.Worker Cluster.Server Cluster.Sys Cluster.ProofsJob Cluster.ProofsMore Cluster.ProofsTerminal Cluster.ProofsStep Cluster.ProofsFinal Cluster.BijBase Cluster.BijCore Cluster.BijHq Cluster.BijSt Cluster.BijReact Cluster.RejHyp Cluster.InvBundle Cluster.NoPanicU0 Cluster.NoPanicU1 Cluster.NoPanicU5 Cluster.NoPanicU6 Cluster.NoPanicU11.
From HQ Require Import Cluster.ModelFacts.
From Coq Require Import ZArith Lia Sorting.Sorted.
Local Open Scope N_scope.

Lemma INV_UH s : INV s -> UH s.
Proof.
  intros [Hok Hfresh [Hcs _ Hbij] _ _ _ _ _]. split.
  - unfold tsorted. pose proof (CS_sorted _ Hcs) as H. exact H.
  - intros x t Hx.
    assert (Hp : present (K (s, [])) x) by (apply find_task_present; eauto).
    apply Hbij in Hp. destruct Hp as (l & Hl & Ha). unfold jt, hq_of in Hl. cbn [fst] in Hl.
    destruct (find_job (h_jobs (s_hq s)) (fst x)) as [j|] eqn:Ej; [|discriminate]. cbn [option_map] in Hl. injection Hl as El. subst l. split.
    + unfold seen. rewrite Ej. pose proof (find_job_in _ _ _ Ej) as Hin. pose proof (find_job_id _ _ _ Ej) as Hid.
      specialize (Hfresh j Hin). unfold cnt_of, hq_of in Hfresh. cbn [fst] in Hfresh. rewrite Hid in Hfresh. apply N.ltb_lt in Hfresh. rewrite Hfresh. cbn [andb].
      destruct Ha as [E|E]; rewrite E; reflexivity.
    + unfold jv. rewrite Ej. destruct Ha as [E|E]; rewrite E; [left | right]; reflexivity.
Qed.
