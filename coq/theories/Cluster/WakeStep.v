(** C02 wake-up discipline, the per-operation analysis (part 1).

    [wake_inv] (Wake.v): flag on, or nothing placeable, or a task in flight.
    For every operation of [Sys.step] except the four listed in [wake_proved] the invariant is
    preserved, for a reason that is one of three:
      - the operation leaves the flag SET: [OpConnect] ([on_new_worker]), [OpLost]
        ([on_remove_worker] ends with [ask_for_scheduling]);
      - the operation does not touch the server core: [OpOpen], [OpClose], [OpForget], [OpPrune]
        (job layer only), [OpDDown], [OpEnd], [OpFailNext], [OpTimer] (worker process only);
      - it is a scheduling round, whose answer meets the completeness contract [sched_complete].
    The remaining operations - [OpCancel], [OpDUp] (the two in which WakeWitness.v finds the lost
    wake-ups) and the two submits - are CHECKED: the theorem [wake_run] takes, for these steps only,
    the executable hypothesis that [wake_inv] holds after the step ([ops_wake_checked], a monitor). *)
From HQ Require Import Base.Prelude Cluster.Types Cluster.Core Cluster.Reactor Cluster.Server Cluster.Sys Cluster.StepShape Cluster.Wake.
From Coq Require Import ZArith.
Local Open Scope N_scope.

Lemma on_new_worker_flag s rs g s' : on_new_worker s rs g = Ok s' -> c_flag (core_of s') = true.
Proof. unfold on_new_worker. intros H. inversion H. reflexivity. Qed.

Lemma on_remove_worker_flag s w reason a p t s' : on_remove_worker s w reason a p t = Ok s' -> c_flag (core_of s') = true.
Proof.
  unfold on_remove_worker. intros H.
  destruct (find_worker (c_workers (core_of s)) w) as [wk|]; [|discriminate].
  apply bind_ok in H. destruct H as ([[c2 running] retracted] & _ & H).
  match type of H with (if ?b then _ else _) = _ => destruct b end; [discriminate|].
  apply bind_ok in H. destruct H as (s3 & _ & H). apply bind_ok in H. destruct H as (s4 & _ & H).
  apply bind_ok in H. destruct H as (s6 & _ & H). apply bind_ok in H. destruct H as (s7 & _ & H).
  inversion H. reflexivity.
Qed.

Lemma step_flag_set s o s' outs : step s o = Ok (s', outs) ->
  match o with OpConnect _ _ | OpLost _ _ _ _ _ => c_flag (s_core s') = true | _ => True end.
Proof.
  destruct o; cbn [step]; intros H; try exact I.
  - exact (on_new_worker_flag _ _ _ _ H).
  - destruct (find_proc (s_procs s) w); [|discriminate]. exact (on_remove_worker_flag _ _ _ _ _ _ _ H).
Qed.

Definition wake_proved (o : op) : bool :=
  match o with
  | OpCancel _ | OpDUp _ | OpSubmit _ _ _ _ _ _ _ _ | OpSubmitG _ _ _ _ => false
  | _ => true
  end.

Definition op_wake_checked (s : sys) (o : op) : bool :=
  wake_proved o || match step s o with Ok (s', _) => wake_inv s' | _ => true end.

Fixpoint ops_wake_checked (s : sys) (ops : list op) : bool :=
  match ops with
  | [] => true
  | o :: r => op_wake_checked s o && match step s o with Ok (s1, _) => ops_wake_checked s1 r | _ => true end
  end.

Theorem wake_step s o s' outs :
  wake_inv s = true -> step s o = Ok (s', outs) -> op_complete s o = true -> op_wake_checked s o = true -> wake_inv s' = true.
Proof.
  intros HW H Hc Hk.
  pose proof (step_core_same _ _ _ _ H) as Hsame. pose proof (step_flag_set _ _ _ _ H) as Hflag.
  unfold op_wake_checked in Hk. rewrite H in Hk.
  destruct o; cbn [wake_proved orb] in Hk; try exact Hk;
    try (apply wake_inv_flag; exact Hflag); try (eapply wake_inv_same_core; [exact Hsame | exact HW]).
  cbn [op_complete] in Hc. eapply sched_complete_post; eassumption.
Qed.

Theorem wake_run : forall ops s s' outs,
  wake_inv s = true -> run s ops = Ok (s', outs) -> ops_complete s ops = true -> ops_wake_checked s ops = true -> wake_inv s' = true.
Proof.
  induction ops as [|o r IH]; cbn [run ops_complete ops_wake_checked]; intros s s' outs HW H Hc Hk.
  - inversion H; subst. exact HW.
  - apply bind_ok in H. destruct H as ([s1 o1] & H1 & H). apply bind_ok in H. destruct H as ([s2 o2] & H2 & H). inversion H; subst.
    rewrite H1 in Hc, Hk. apply andb_true_iff in Hc. destruct Hc as [Hc1 Hc2]. apply andb_true_iff in Hk. destruct Hk as [Hk1 Hk2].
    eapply IH; [|exact H2 | exact Hc2 | exact Hk2]. eapply wake_step; eassumption.
Qed.

Lemma wake_inv_init r m : wake_inv (init_sys r m) = true.
Proof. reflexivity. Qed.

Theorem wake_reachable r m ops s outs :
  run (init_sys r m) ops = Ok (s, outs) -> ops_complete (init_sys r m) ops = true -> ops_wake_checked (init_sys r m) ops = true ->
  wake_inv s = true.
Proof. intros H Hc Hk. eapply wake_run; [apply wake_inv_init | exact H | exact Hc | exact Hk]. Qed.
