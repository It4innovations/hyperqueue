(** C01, "start before finish" (strengthened): frame lemmas [RKN] (StartFin2Base.v) for everything
    in the core that moves tasks between states - no function of the core takes the root worker
    away from a running task, except a worker loss (tasks recorded as running on the lost worker) and
    the removal of the task. *)
From HQ Require Import Base.Prelude Cluster.Types Cluster.Core Cluster.Reactor Cluster.Worker Cluster.Server Cluster.Sys Cluster.ProofsJob Cluster.ProofsMore Cluster.ProofsTerminal Cluster.ProofsStep Cluster.BijBase Cluster.BijCore Cluster.BijHq Cluster.BijSt Cluster.BijReact Cluster.FrameGen Cluster.CrashFrame Cluster.ProofsOnce Cluster.StartFinBase Cluster.StartFin2Base.
From HQ Require Import Cluster.ModelFacts.
From HQ Require Import Cluster.ReactSplit.
From Coq Require Import ZArith Lia.
Local Open Scope N_scope.

Arguments N.add : simpl never.
Arguments N.sub : simpl never.


Lemma RKN_step N c c1 c2 : RKN N c c1 -> c_tasks c2 = c_tasks c1 -> RKN N c c2.
Proof. intros A E. eapply RKN_trans; [exact A | apply RKN_eq; exact E]. Qed.

Lemma RKN_upd N c x t0 : In t0 (c_tasks c) -> t_id t0 = t_id x -> keeps (t_state t0) (t_state x) -> RKN N c (upd_task c x).
Proof.
  intros Hin Hid K tk' H. cbn [upd_task with_tasks c_tasks] in H. apply set_task_in in H. destruct H as [->|H].
  - right. exists t0. split; [exact Hin|]. split; [exact Hid | exact K].
  - right. exists tk'. split; [exact H|]. split; [reflexivity | apply keeps_refl].
Qed.

Lemma RKN_upd_find N c id t0 x :
  find_task (c_tasks c) id = Some t0 -> t_id x = t_id t0 -> keeps (t_state t0) (t_state x) -> RKN N c (upd_task c x).
Proof. intros Hf Hid K. destruct (find_task_some _ _ _ Hf) as [Hin _]. eapply RKN_upd; [exact Hin | symmetry; exact Hid | exact K]. Qed.

Lemma RKN_upd_get N c id t0 x :
  get_task (c_tasks c) id = Ok t0 -> t_id x = t_id t0 -> keeps (t_state t0) (t_state x) -> RKN N c (upd_task c x).
Proof. intros Hg. apply (RKN_upd_find N c id t0 x). apply get_task_find. exact Hg. Qed.

Lemma RKN_upd_N (N : tid -> Prop) c x : N (t_id x) -> RKN N c (upd_task c x).
Proof.
  intros Hn tk' H. cbn [upd_task with_tasks c_tasks] in H. apply set_task_in in H. destruct H as [->|H].
  - left. exact Hn.
  - right. exists tk'. split; [exact H|]. split; [reflexivity | apply keeps_refl].
Qed.

Lemma RKN_upd_gen N c c0 x cx t0 :
  c_tasks c0 = c_tasks c -> In t0 (c_tasks c) -> t_id x = t_id t0 -> keeps (t_state t0) (t_state x) ->
  c_tasks cx = c_tasks (upd_task c0 x) -> RKN N c cx.
Proof.
  intros E0 Hin Hid K Ex. eapply RKN_step; [|exact Ex]. eapply RKN_trans; [apply RKN_eq; exact E0|].
  eapply RKN_upd; [rewrite E0; exact Hin | symmetry; exact Hid | exact K].
Qed.

Lemma RKN_updN_gen (N : tid -> Prop) c c0 x cx :
  c_tasks c0 = c_tasks c -> N (t_id x) -> c_tasks cx = c_tasks (upd_task c0 x) -> RKN N c cx.
Proof.
  intros E0 Hn Ex. eapply RKN_step; [|exact Ex]. eapply RKN_trans; [apply RKN_eq; exact E0|]. apply RKN_upd_N. exact Hn.
Qed.

(** The old state has no root: any new state will do. *)
Ltac nk E := rewrite E; let w0 := fresh "w0" in let HH := fresh "HH" in intros w0 HH; first [exact HH | destruct HH].
(** [RKN N c cx] where [cx] is [c] with one task [x] (an updated [t0], [Hin : In t0 (c_tasks c)]) set. *)
Ltac rk_upd t0 Hin tac :=
  match goal with |- RKN ?N ?c ?cx =>
    match cx with context [upd_task ?c0 ?x] =>
      apply (RKN_upd_gen N c c0 x cx t0); [reflexivity | exact Hin | reflexivity | tac | reflexivity] end end.

Ltac get_in Ht Hin Hid := destruct (find_task_some _ _ _ (get_task_find _ _ _ Ht)) as [Hin Hid].

Lemma retract_states_RK N ids : forall c acc c' acc', retract_states c ids acc = Ok (c', acc') -> RKN N c c'.
Proof.
  induction ids as [|id r IH]; cbn [retract_states]; intros c acc c' acc' H; [inversion H; subst; apply RKN_refl|].
  apply bind_ok in H. destruct H as (t & Ht & H). get_in Ht Hin Hid.
  destruct (t_state t) eqn:Est; try discriminate.
  apply bind_ok in H. destruct H as (wk & _ & H). apply bind_ok in H. destruct H as (wk' & _ & H).
  eapply RKN_trans; [|eapply IH; exact H]. rk_upd t Hin ltac:(nk Est).
Qed.

Lemma process_retracted_RK N s r s' : process_retracted s r = Ok s' -> RKN N (core_of s) (core_of s').
Proof.
  unfold process_retracted. destruct r; [intros H; inversion H; subst; apply RKN_refl|].
  intros H. apply bind_ok in H. destruct H as ([c' groups] & Hr & H). rewrite (send_all_core _ _ _ H).
  change (RKN N (core_of s) c'). eapply retract_states_RK; exact Hr.
Qed.

Lemma remove_task_RK N c id c' stt : remove_task c id = Ok (c', stt) -> RKN N c c'.
Proof.
  intros H. unfold remove_task in H. destruct (find_task (c_tasks c) id) as [t|] eqn:Ef; [|discriminate].
  assert (Hdel : forall c1, c_tasks c1 = del_task (c_tasks c) id -> RKN N c c1).
  { intros c1 E tk' Hin. rewrite E in Hin. apply del_task_in in Hin. right. exists tk'. split; [exact Hin|]. split; [reflexivity | apply keeps_refl]. }
  destruct (t_state t); try (inversion H; subst; apply Hdel; reflexivity).
  apply bind_ok in H. destruct H as (c2 & H2 & H).
  assert (E2 : c_tasks c2 = del_task (c_tasks c) id).
  { destruct (N.eqb unfinished_deps 0); [|inversion H2; reflexivity]. inv_binds H2. inversion H2; reflexivity. }
  destruct (N.ltb 0 unfinished_deps).
  - apply bind_ok in H. destruct H as (ts & Hr & H). inversion H; subst. intros tk' Hin. cbn [c_tasks with_tasks] in Hin.
    destruct (remove_consumer_from_in _ _ _ _ Hr tk' Hin) as (y0 & H0 & I0 & S0 & _). rewrite E2 in H0. apply del_task_in in H0.
    right. exists y0. split; [exact H0|]. split; [exact I0 | rewrite S0; apply keeps_refl].
  - inversion H; subst. apply Hdel. exact E2.
Qed.

Lemma remove_tasks_batched_RK N l : forall c c', remove_tasks_batched c l = Ok c' -> RKN N c c'.
Proof.
  induction l as [|id r IH]; cbn [remove_tasks_batched]; intros c c' H; [inversion H; subst; apply RKN_refl|].
  apply bind_ok in H. destruct H as ([c1 stt] & H1 & H).
  eapply RKN_trans; [eapply remove_task_RK; exact H1 | eapply IH; exact H].
Qed.

Lemma remove_waiting_consumers_RK N l : forall c c', remove_waiting_consumers c l = Ok c' -> RKN N c c'.
Proof.
  induction l as [|id r IH]; cbn [remove_waiting_consumers]; intros c c' H; [inversion H; subst; apply RKN_refl|].
  apply bind_ok in H. destruct H as ([c1 stt] & H1 & H). destruct stt; try discriminate.
  eapply RKN_trans; [eapply remove_task_RK; exact H1 | eapply IH; exact H].
Qed.

Lemma on_cancel_tasks_RK N s ids s' : on_cancel_tasks s ids = Ok s' -> RKN N (core_of s) (core_of s').
Proof.
  intros H. unfold on_cancel_tasks in H.
  apply bind_ok in H. destruct H as ([[s1 tu] ru] & H1 & H). apply bind_ok in H. destruct H as (c' & H2 & H).
  pose proof (cancel_release_tasks _ _ _ _ _ _ _ H1) as E1.
  rewrite (send_all_core _ _ _ H). change (RKN N (core_of s) c').
  eapply RKN_trans; [apply RKN_eq; exact E1 | eapply remove_tasks_batched_RK; exact H2].
Qed.

Lemma wake_consumers_RK N csm : forall c ret c' ret', wake_consumers c csm ret = Ok (c', ret') -> RKN N c c'.
Proof.
  induction csm as [|x r IH]; cbn [wake_consumers]; intros c ret c' ret' H; [inversion H; subst; apply RKN_refl|].
  apply bind_ok in H. destruct H as (t & Ht & H). get_in Ht Hin Hid.
  destruct (t_state t) as [n| | | | | |] eqn:Est; try discriminate.
  destruct (N.eqb n 0); [discriminate|].
  destruct (N.eqb (n - 1) 0).
  - apply bind_ok in H. destruct H as ([qs rt] & _ & H).
    eapply RKN_trans; [|eapply IH; exact H]. rk_upd t Hin ltac:(nk Est).
  - eapply RKN_trans; [|eapply IH; exact H]. rk_upd t Hin ltac:(nk Est).
Qed.

Lemma requeue_RK N s t c1 s' b :
  In t (c_tasks c1) -> (forall w, ~ rootok (t_state t) w) ->
  (do (qs, ret) <- add_ready_task (c_queues c1) (with_state t (Waiting 0));
   do s'' <- process_retracted (st_core s (with_queues (upd_task c1 (with_state t (Waiting 0))) qs)) ret;
   Ok (s'', true)) = Ok (s', b) -> RKN N c1 (core_of s').
Proof.
  intros Hin Hnr Hx. apply bind_ok in Hx. destruct Hx as ([qs rt] & _ & Hx). apply bind_ok in Hx. destruct Hx as (sx & Hp & Hx). inversion Hx; subst.
  eapply RKN_trans; [|exact (process_retracted_RK N _ _ _ Hp)].
  change (RKN N c1 (with_queues (upd_task c1 (with_state t (Waiting 0))) qs)).
  rk_upd t Hin ltac:(intros w0 HH; exfalso; exact (Hnr w0 HH)).
Qed.

Lemma task_reject_RK N s w id rv s' b : task_reject s w id rv = Ok (s', b) -> RKN N (core_of s) (core_of s').
Proof.
  intros Hc. unfold task_reject in Hc.
  destruct (find_task _ id) as [t|] eqn:Ef; [|inversion Hc; subst; apply RKN_refl].
  destruct (find_task_some _ _ _ Ef) as [Hin _].
  apply bind_ok in Hc. destruct Hc as (wk & _ & Hc). apply bind_ok in Hc. destruct Hc as (rq & _ & Hc).
  apply bind_ok in Hc. destruct Hc as ([c1 cont] & Hr & Hc).
  assert (E1 : c_tasks c1 = c_tasks (core_of s) /\ (forall w0, ~ rootok (t_state t) w0)).
  { destruct (t_state t) eqn:Est; try discriminate.
    - split; [|intros w1 []]. destruct (negb (N.eqb w w0)); [inversion Hr; reflexivity|].
      destruct rv as [v|]; [|inversion Hr; reflexivity]. destruct (N.eqb v rv0); [|inversion Hr; reflexivity].
      inv_binds Hr. inversion Hr; reflexivity.
    - split; [|intros w1 []]. inv_binds Hr. inversion Hr; reflexivity.
    - split; [|intros w1 []]. destruct (negb (N.eqb w w0)); inversion Hr; reflexivity. }
  destruct E1 as [E1 Hnr]. assert (Hin1 : In t (c_tasks c1)) by (rewrite E1; exact Hin).
  assert (Hq : forall sx bx,
    (do (qs, ret) <- add_ready_task (c_queues c1) (with_state t (Waiting 0));
     do s'' <- process_retracted (st_core s (with_queues (upd_task c1 (with_state t (Waiting 0))) qs)) ret;
     Ok (s'', true)) = Ok (sx, bx) -> RKN N (core_of s) (core_of sx)).
  { intros sx bx Hx. eapply RKN_trans; [apply RKN_eq; exact E1 | eapply requeue_RK; [exact Hin1 | exact Hnr | exact Hx]]. }
  destruct (t_state t) eqn:Est; try (eapply Hq; exact Hc).
  destruct cont.
  - destruct (find_redirect (c_redirects c1) id) as [[target rvt]|].
    + apply bind_ok in Hc. destruct Hc as (sx & Hs & Hc). inversion Hc; subst.
      rewrite (send_worker_core _ _ _ _ Hs).
      eapply RKN_trans; [apply RKN_eq; exact E1|].
      change (RKN N c1 (upd_task (with_redirects c1 (del_redirect (c_redirects c1) id)) (with_state t (Assigned target rvt)))).
      rk_upd t Hin1 ltac:(nk Est).
    + eapply Hq; exact Hc.
  - inversion Hc; subst. change (RKN N (core_of s) c1). apply RKN_eq. exact E1.
Qed.

Lemma retract_response_states_RK N ids : forall c w acc c' acc',
  retract_response_states c w ids acc = (c', acc') -> RKN N c c'.
Proof.
  induction ids as [|id r IH]; cbn [retract_response_states]; intros c w acc c' acc' H; [inversion H; subst; apply RKN_refl|].
  destruct (find_task (c_tasks c) id) as [t|] eqn:Ef; [|eapply IH; exact H].
  destruct (find_task_some _ _ _ Ef) as [Hin _].
  destruct (t_state t) eqn:Est; try (eapply IH; exact H).
  destruct (N.eqb w w0); [|eapply IH; exact H].
  destruct (find_redirect _ id) as [[target rv]|].
  - eapply RKN_trans; [|eapply IH; exact H]. rk_upd t Hin ltac:(nk Est).
  - eapply RKN_trans; [|eapply IH; exact H]. rk_upd t Hin ltac:(nk Est).
Qed.

Lemma on_retract_response_RK N s w ids s' : on_retract_response s w ids = Ok s' -> RKN N (core_of s) (core_of s').
Proof.
  unfold on_retract_response. destruct (retract_response_states (core_of s) w ids []) as [c' groups] eqn:E. intros H.
  apply bind_ok in H. destruct H as (s2 & H & H2).
  assert (X2 : RKN N (core_of s) (core_of s2)).
  { rewrite (send_redirected_core _ _ _ H). change (RKN N (core_of s) c'). eapply retract_response_states_RK; exact E. }
  destruct (retract_wakes _ _ _ _); inversion H2; subst s'; clear H2; [|exact X2].
  eapply RKN_step; [exact X2 | reflexivity].
Qed.

Lemma lost_retracting_RK N l : forall s w s', lost_retracting s w l = Ok s' -> RKN N (core_of s) (core_of s').
Proof.
  induction l as [|id r IH]; cbn [lost_retracting]; intros s w s' H; [inversion H; subst; apply RKN_refl|].
  apply bind_ok in H. destruct H as (t & Ht & H). get_in Ht Hin Hid.
  destruct (t_state t) eqn:Est; try (eapply IH; exact H).
  destruct (N.eqb w w0); [|eapply IH; exact H].
  destruct (find_redirect _ id) as [[target rv]|].
  - apply bind_ok in H. destruct H as (s1 & H1 & H).
    eapply RKN_trans; [|eapply IH; exact H]. rewrite (send_worker_core _ _ _ _ H1).
    match goal with |- RKN N _ (core_of (st_core s ?cx)) => change (RKN N (core_of s) cx) end.
    rk_upd t Hin ltac:(nk Est).
  - eapply RKN_trans; [|eapply IH; exact H].
    match goal with |- RKN N _ (core_of (st_core s ?cx)) => change (RKN N (core_of s) cx) end.
    rk_upd t Hin ltac:(nk Est).
Qed.

Lemma register_deps_RK N deps : forall c id kept count c' kept' count',
  register_deps c id deps kept count = (c', kept', count') -> RKN N c c'.
Proof.
  induction deps as [|d r IH]; cbn [register_deps]; intros c id kept count c' kept' count' H; [inversion H; subst; apply RKN_refl|].
  destruct (find_task (c_tasks c) d) as [dep|] eqn:Ef; [|eapply IH; exact H].
  destruct (find_task_some _ _ _ Ef) as [Hin _].
  eapply RKN_trans; [|eapply IH; exact H]. rk_upd dep Hin ltac:(apply keeps_refl).
Qed.

Lemma add_new_tasks_RK (N : tid -> Prop) ts : forall c ret c' ret',
  (forall t, In t ts -> N (t_id t)) -> add_new_tasks c ts ret = Ok (c', ret') -> RKN N c c'.
Proof.
  induction ts as [|t r IH]; cbn [add_new_tasks]; intros c ret c' ret' HN H; [inversion H; subst; apply RKN_refl|].
  destruct (register_deps c (t_id t) (t_deps t) [] 0) as [[c1 kept] count] eqn:Er.
  apply bind_ok in H. destruct H as ([c2 rt] & H2 & H).
  assert (E2 : c_tasks c2 = c_tasks c1).
  { destruct (N.eqb count 0); [|inversion H2; reflexivity]. inv_binds H2. inversion H2; reflexivity. }
  destruct (find_task (c_tasks c2) (t_id t)); [discriminate|].
  eapply RKN_trans; [eapply register_deps_RK; exact Er|].
  eapply RKN_trans; [|eapply IH; [|exact H]]; [|intros t0 Hin; apply HN; right; exact Hin].
  match goal with |- RKN N c1 (upd_task c2 ?x) => apply (RKN_updN_gen N c1 c2 x); [exact E2 | | reflexivity] end.
  cbn. apply HN. left. reflexivity.
Qed.

Lemma on_new_tasks_RK (N : tid -> Prop) s ts s' :
  (forall t, In t ts -> N (t_id t)) -> on_new_tasks s ts = Ok s' -> RKN N (core_of s) (core_of s').
Proof.
  unfold on_new_tasks. intros HN. destruct ts as [|t0 r] eqn:Ets; [intros H; inversion H; subst; apply RKN_refl|]. rewrite <- Ets in *.
  intros H. apply bind_ok in H. destruct H as ([c' rt] & Ha & H). apply bind_ok in H. destruct H as (s1 & H1 & H). inversion H; subst.
  change (RKN N (core_of s) (with_flag (core_of s1) true)).
  eapply RKN_step; [|reflexivity].
  eapply RKN_trans; [eapply add_new_tasks_RK; [exact HN | exact Ha]|].
  exact (process_retracted_RK N _ _ _ H1).
Qed.

Lemma map_one_RK N c m id w v rqres c' m' : map_one c m id w v rqres = Ok (c', m') -> RKN N c c'.
Proof.
  intros H. unfold map_one in H.
  apply bind_ok in H. destruct H as (wk & _ & H). apply bind_ok in H. destruct H as (wk' & _ & H).
  apply bind_ok in H. destruct H as (t & Ht & H).
  assert (Hf : find_task (c_tasks c) id = Some t) by (apply get_task_find; exact Ht).
  destruct (find_task_some _ _ _ Hf) as [Hin _].
  destruct (t_state t) eqn:Est; try discriminate.
  - inversion H; subst. rk_upd t Hin ltac:(nk Est).
  - destruct (find_worker _ w0) as [wo|]; [|discriminate]. apply bind_ok in H. destruct H as (wo' & _ & H).
    destruct (find_redirect _ id); [discriminate|]. inversion H; subst. rk_upd t Hin ltac:(nk Est).
  - destruct (find_redirect _ id) as [[ot vo]|].
    + inv_binds H. inversion H; subst. apply RKN_eq. reflexivity.
    + inversion H; subst. apply RKN_eq. reflexivity.
Qed.

Lemma map_sn_RK N sol l : forall c m c' m', map_sn c m sol l = Ok (c', m') -> RKN N c c'.
Proof. apply (map_sn_lift (RKN N) (RKN_refl N) (RKN_trans N)); [|exact (map_one_RK N)]. intros c qs. apply RKN_eq. reflexivity. Qed.

Lemma set_mn_workers_tasks l : forall c id first c', set_mn_workers c id l first = Ok c' -> c_tasks c' = c_tasks c.
Proof.
  induction l as [|w r IH]; cbn [set_mn_workers]; intros c id first c' H; [inversion H; reflexivity|].
  apply bind_ok in H. destruct H as (wk & _ & H). apply bind_ok in H. destruct H as (wk' & _ & H).
  rewrite (IH _ _ _ _ H). reflexivity.
Qed.

Lemma map_mn_sets_RK N sets : forall c rq mn c' mn', map_mn_sets c rq mn sets = Ok (c', mn') -> RKN N c c'.
Proof.
  induction sets as [|ws rest IH]; cbn [map_mn_sets]; intros c rq mn c' mn' H; [inversion H; subst; apply RKN_refl|].
  apply bind_ok in H. destruct H as (q & _ & H).
  destruct (q_take_one q) as [[id q']|]; [|discriminate].
  apply bind_ok in H. destruct H as (c2 & H2 & H). apply bind_ok in H. destruct H as (t & Ht & H). get_in Ht Hin Hid.
  destruct (t_state t) as [n| | | | | |] eqn:Est; try discriminate. destruct n; [|discriminate].
  eapply RKN_trans; [|eapply IH; exact H].
  pose proof (set_mn_workers_tasks _ _ _ _ _ H2) as E2. cbn [c_tasks with_queues] in E2.
  eapply (RKN_trans _ _ c2); [apply RKN_eq; exact E2|]. rk_upd t Hin ltac:(nk Est).
Qed.

Lemma map_mn_RK N l : forall c mn c' mn', map_mn c mn l = Ok (c', mn') -> RKN N c c'.
Proof.
  induction l as [|[[rq v] sets] r IH]; cbn [map_mn]; intros c mn c' mn' H; [inversion H; subst; apply RKN_refl|].
  apply bind_ok in H. destruct H as ([c1 mn1] & H1 & H).
  eapply RKN_trans; [eapply map_mn_sets_RK; exact H1 | eapply IH; exact H].
Qed.

Lemma prefill_mark_RK N l : forall c w c', prefill_mark c w l = Ok c' -> RKN N c c'.
Proof.
  induction l as [|id r IH]; cbn [prefill_mark]; intros c w c' H; [inversion H; subst; apply RKN_refl|].
  apply bind_ok in H. destruct H as (t & Ht & H). get_in Ht Hin Hid.
  destruct (is_waiting t) eqn:Ew; [|discriminate]. cbn [negb] in H.
  apply bind_ok in H. destruct H as (wk & _ & H). apply bind_ok in H. destruct H as (wk' & _ & H).
  eapply RKN_trans; [|eapply IH; exact H].
  rk_upd t Hin ltac:(unfold is_waiting in Ew; destruct (t_state t); try discriminate; intros w0 []).
Qed.

Lemma prefill_queues_RK N n : forall c m worder qi top c' m',
  prefill_queues c m worder qi n top = Ok (c', m') -> RKN N c c'.
Proof. apply (prefill_queues_lift (RKN N) (RKN_refl N) (RKN_trans N)); [|exact (prefill_mark_RK N)]. intros c qs. apply RKN_eq. reflexivity. Qed.

Lemma run_scheduling_RK N s sol s' : run_scheduling s sol = Ok s' -> RKN N (core_of s) (core_of s').
Proof.
  unfold run_scheduling. destruct (negb (perm_of_set _ _)); [discriminate|]. intros H.
  apply bind_ok in H. destruct H as ([c1 m1] & H1 & H). apply bind_ok in H. destruct H as ([c2 mn] & H2 & H).
  apply bind_ok in H. destruct H as ([c3 m3] & H3 & H). apply bind_ok in H. destruct H as (s1 & Hs1 & H).
  apply bind_ok in H. destruct H as (s2 & Hs2 & H). inversion H; subst.
  change (RKN N (core_of s) (with_flag (core_of s2) false)). eapply RKN_step; [|reflexivity].
  rewrite (send_mn_core _ _ _ Hs2), (send_mapping_core _ _ _ Hs1). change (RKN N (core_of s) c3).
  eapply RKN_trans; [eapply map_sn_RK; exact H1|]. eapply RKN_trans; [eapply map_mn_RK; exact H2|].
  destruct (queues_top_priority (c_queues c2)); [eapply prefill_queues_RK; exact H3 | inversion H3; subst; apply RKN_refl].
Qed.

(** The lost worker's own sets: the tasks of the sets are excepted. *)
Lemma lost_prefilled_RK (N : tid -> Prop) l : forall c c', (forall id, In id l -> N id) -> lost_prefilled c l = Ok c' -> RKN N c c'.
Proof.
  induction l as [|id r IH]; cbn [lost_prefilled]; intros c c' HN H; [inversion H; subst; apply RKN_refl|].
  apply bind_ok in H. destruct H as (t & Ht & H). apply bind_ok in H. destruct H as (q & _ & H). apply bind_ok in H. destruct H as (q' & _ & H).
  get_in Ht Hin Hid.
  eapply RKN_trans; [|eapply IH; [|exact H]]; [|intros x Hx; apply HN; right; exact Hx].
  match goal with |- RKN N c ?cx => match cx with context [upd_task ?c0 ?x] => apply (RKN_updN_gen N c c0 x cx); [reflexivity | | reflexivity] end end.
  cbn. rewrite Hid. apply HN. left. reflexivity.
Qed.

Lemma lost_assigned_shape c id t running c1 t1 running1 :
  find_task (c_tasks c) id = Some t ->
  match t_state t with
  | Running _ _ => Ok (c, with_state t (Waiting 0), running ++ [id])
  | Retracting _ =>
      match find_redirect (c_redirects c) id with
      | Some _ => Ok (with_redirects c (del_redirect (c_redirects c) id), t, running)
      | None => Panic 185
      end
  | _ => Ok (c, with_state t (Waiting 0), running)
  end = Ok (c1, t1, running1) -> c_tasks c1 = c_tasks c /\ t_id t1 = id.
Proof.
  intros Hf H1. destruct (find_task_some _ _ _ Hf) as [_ Hid].
  destruct (t_state t); try (inversion H1; subst; split; reflexivity).
  destruct (find_redirect (c_redirects c) id); [|discriminate]. inversion H1; subst. split; reflexivity.
Qed.

Lemma lost_assigned_RK (N : tid -> Prop) l : forall c running ret c' running' ret',
  (forall id, In id l -> N id) -> lost_assigned c l running ret = Ok (c', running', ret') -> RKN N c c'.
Proof.
  induction l as [|id r IH]; cbn [lost_assigned]; intros c running ret c' running' ret' HN H; [inversion H; subst; apply RKN_refl|].
  apply bind_ok in H. destruct H as (t & Ht & H). apply bind_ok in H. destruct H as ([[c1 t1] running1] & H1 & H).
  apply bind_ok in H. destruct H as ([qs rt] & _ & H).
  destruct (lost_assigned_shape _ _ _ _ _ _ _ (get_task_find _ _ _ Ht) H1) as [E1 I1].
  eapply RKN_trans; [|eapply IH; [|exact H]]; [|intros x Hx; apply HN; right; exact Hx].
  match goal with |- RKN N c ?cx => match cx with context [upd_task ?c0 ?x] => apply (RKN_updN_gen N c c0 x cx); [exact E1 | | reflexivity] end end.
  cbn. rewrite I1. apply HN. left. reflexivity.
Qed.

Lemma lost_assigned_mono l : forall c running ret c' running' ret',
  lost_assigned c l running ret = Ok (c', running', ret') -> forall x, In x running -> In x running'.
Proof.
  induction l as [|id r IH]; cbn [lost_assigned]; intros c running ret c' running' ret' H x Hx; [inversion H; subst; exact Hx|].
  apply bind_ok in H. destruct H as (t & Ht & H). apply bind_ok in H. destruct H as ([[c1 t1] running1] & H1 & H).
  apply bind_ok in H. destruct H as ([qs rt] & _ & H).
  eapply IH; [exact H|].
  destruct (t_state t); try (inversion H1; subst; exact Hx).
  - destruct (find_redirect _ id); [|discriminate]. inversion H1; subst. exact Hx.
  - inversion H1; subst. apply in_or_app. left. exact Hx.
Qed.

Lemma lost_assigned_running l : forall c running ret c' running' ret' x tk w rv,
  lost_assigned c l running ret = Ok (c', running', ret') ->
  In x l -> find_task (c_tasks c) x = Some tk -> t_state tk = Running w rv -> In x running'.
Proof.
  induction l as [|id r IH]; cbn [lost_assigned]; intros c running ret c' running' ret' x tk w rv H Hx Hf Est; [destruct Hx|].
  apply bind_ok in H. destruct H as (t & Ht & H). apply bind_ok in H. destruct H as ([[c1 t1] running1] & H1 & H).
  apply bind_ok in H. destruct H as ([qs rt] & _ & H).
  destruct (tid_eqb x id) eqn:Ex.
  - apply tid_eqb_eq in Ex. subst x. rewrite (get_task_find _ _ _ Ht) in Hf. inversion Hf; subst tk. rewrite Est in H1. inversion H1; subst.
    eapply lost_assigned_mono; [exact H|]. apply in_or_app. right. left. reflexivity.
  - destruct Hx as [Hx|Hx]; [subst x; rewrite tid_eqb_refl in Ex; discriminate|].
    eapply (IH _ _ _ _ _ _ x tk w rv H Hx); [|exact Est].
    destruct (lost_assigned_shape _ _ _ _ _ _ _ (get_task_find _ _ _ Ht) H1) as [E1 I1].
    cbn [c_tasks with_queues upd_task with_tasks]. rewrite find_set_task. cbn [t_id with_inst]. rewrite I1, Ex, E1. exact Hf.
Qed.
