(** The queue invariant, part 4: the queue operations at the level of the invariant:
    [add_ready_task] (with [dispose_all]), the taking functions, single-id removals. *)
From HQ Require Import Base.Prelude Cluster.Types Cluster.Core Cluster.Reactor Cluster.Worker Cluster.Server Cluster.Sys Cluster.Monitors Cluster.ProofsJob Cluster.ProofsMore Cluster.ProofsStep Cluster.BijBase Cluster.BijCore Cluster.BijHq Cluster.BijSt Cluster.InvQBase Cluster.InvQTake Cluster.InvQInv.
From HQ Require Import Cluster.ModelFacts.
From Coq Require Import ZArith Lia Sorting.Sorted.
Local Open Scope N_scope.

Arguments N.add : simpl never.
Arguments N.sub : simpl never.

Lemma exL_in pl l base x : In x l -> exL pl l base x = Some pl.
Proof. intros H. unfold exL. apply tid_mem_In in H. rewrite H. reflexivity. Qed.
Lemma exL_notin pl l base x : ~ In x l -> exL pl l base x = base x.
Proof. intros H. unfold exL. apply tid_mem_nIn in H. rewrite H. reflexivity. Qed.
Lemma exL_cons pl id l base x : exL pl (id :: l) base x = if tid_eqb x id then Some pl else exL pl l base x.
Proof. unfold exL. cbn [tid_mem]. destruct (tid_eqb x id); reflexivity. Qed.
Lemma exL_app pl a b base x : exL pl (a ++ b) base x = exL pl a (exL pl b base) x.
Proof. unfold exL. rewrite tid_mem_app. destruct (tid_mem x a); reflexivity. Qed.
Lemma exU_same base id pl : exU base id pl id = Some pl.
Proof. unfold exU. rewrite (proj2 (tid_eqb_eq id id) eq_refl). reflexivity. Qed.
Lemma exU_other base id pl x : x <> id -> exU base id pl x = base x.
Proof. intros H. unfold exU. apply tid_eqb_neq in H. rewrite H. reflexivity. Qed.
Lemma exR_same base id : exR base id id = None.
Proof. unfold exR. rewrite (proj2 (tid_eqb_eq id id) eq_refl). reflexivity. Qed.
Lemma exR_other base id x : x <> id -> exR base id x = base x.
Proof. intros H. unfold exR. apply tid_eqb_neq in H. rewrite H. reflexivity. Qed.

Lemma ex_no_redirect ex Z ts qs rs rqs id pl : QV ex Z ts qs rs rqs -> ex id = Some pl -> find_redirect rs id = None.
Proof.
  intros V E. destruct (find_redirect rs id) eqn:Er; [|reflexivity]. apply (qv_red _ _ _ _ _ _ V) in Er. destruct Er as [Er _]. congruence.
Qed.

(** The end of a multi-step transition: the id, an exception at [pl], gets a state that puts it
    at [pl] (and the exception may go). *)
Lemma QV_settle ex ex' Z ts qs rs rqs id t t' pl :
  QV ex Z ts qs rs rqs -> find_task ts id = Some t -> ex id = Some pl ->
  t_id t' = id -> t_rq t' = t_rq t -> t_prio t' = t_prio t ->
  (forall x, x <> id -> ex' x = ex x) -> exp_place ex' rs id (t_state t') = pl ->
  (t_state t' = Finished -> In id Z) ->
  QV ex' Z (set_task ts t') qs rs rqs.
Proof.
  intros V Hf Ei Hid Hrq Hpr Hex Hpl Hfin. pose proof (ex_no_redirect _ _ _ _ _ _ _ _ V Ei) as Hr.
  eapply QV_task0; [exact V | exact Hf | exact Hid | exact Hrq | exact Hpr | exact Hex | | | exact Hfin].
  - unfold exp_place at 2. rewrite Ei. exact Hpl.
  - intros v Hv. congruence.
Qed.

Lemma dispose_all_spec p : forall qs qs1 r, Forall WFQ qs -> dispose_all qs p = (qs1, r) ->
  length qs1 = length qs /\ Forall WFQ qs1 /\
  (forall i q, nth_error qs i = Some q -> exists q1 ri, nth_error qs1 i = Some q1 /\ q_check_dispose_prefill q p = (q1, ri) /\ incl ri r) /\
  (forall x, In x r -> exists i q q1 ri, nth_error qs i = Some q /\ q_check_dispose_prefill q p = (q1, ri) /\ In x ri).
Proof.
  induction qs as [|q t IH]; cbn [dispose_all]; intros qs1 r W H.
  - inversion H; subst. split; [reflexivity | split; [constructor | split; [intros i q Hq; destruct i; discriminate | intros x []]]].
  - inversion W as [|? ? Wq Wt]; subst.
    destruct (q_check_dispose_prefill q p) as [q1 r1] eqn:E1. destruct (dispose_all t p) as [t1 r2] eqn:E2. inversion H; subst; clear H.
    destruct (IH _ _ Wt eq_refl) as (I1 & I2 & I3 & I4).
    split; [cbn; rewrite I1; reflexivity|]. split; [constructor; [apply (q_cdp_spec _ _ _ _ Wq E1) | exact I2]|]. split.
    + intros i q0 Hq. destruct i as [|k]; cbn [nth_error] in *.
      * inversion Hq; subst. exists q1, r1. split; [reflexivity | split; [exact E1 | apply incl_appl, incl_refl]].
      * destruct (I3 _ _ Hq) as (q1' & ri & A & B & C). exists q1', ri. split; [exact A | split; [exact B | apply incl_appr; exact C]].
    + intros x Hx. apply in_app_or in Hx. destruct Hx as [Hx|Hx].
      * exists O, q, q1, r1. split; [reflexivity | split; [exact E1 | exact Hx]].
      * destruct (I4 _ Hx) as (i & q0 & q1' & ri & A & B & C). exists (S i), q0, q1', ri. auto.
Qed.

Lemma QV_dispose ex Z ts qs rs rqs p qs1 r :
  QV ex Z ts qs rs rqs -> dispose_all qs p = (qs1, r) -> QV (exL Ready r ex) Z ts qs1 rs rqs.
Proof.
  intros V H. destruct (dispose_all_spec _ _ _ _ (qv_wf _ _ _ _ _ _ V) H) as (L & W & Hnth & Hr).
  (* what is known of a retracted id *)
  assert (Hret : forall x, In x r -> exists t q q1 ri pp,
            find_task ts x = Some t /\ nth_error qs (N.to_nat (t_rq t)) = Some q /\
            q_check_dispose_prefill q p = (q1, ri) /\ In x ri /\ q_prefill q = Some (pp, ri) /\
            exp_place ex rs x (t_state t) = Prefill /\ t_prio t = pp).
  { intros x Hx. destruct (Hr _ Hx) as (i & q & q1 & ri & Hq & Hc & Hin).
    pose proof (nth_error_Forall _ _ _ _ (qv_wf _ _ _ _ _ _ V) Hq) as Wq.
    destruct (q_cdp_spec _ _ _ _ Wq Hc) as [_ [[_ ->]|(pp & Ep & _ & _)]]; [destruct Hin|].
    assert (Hpf : PfAt q pp x) by (unfold PfAt; rewrite Ep; apply PAt_some; auto).
    destruct (qv_live _ _ _ _ _ _ V i q x Hq) as (t & Hf & Hi); [exists pp; right; exact Hpf|].
    exists t, q, q1, ri, pp. rewrite Hi. repeat (split; [assumption|]).
    rewrite <- Hi in Hq. pose proof (qv_task _ _ _ _ _ _ V _ _ _ Hf Hq) as Hp.
    destruct (exp_place ex rs x (t_state t)); cbn in Hp; destruct Hp as [A B].
    - exfalso. exact (B _ Hpf).
    - exfalso. exact (B _ Hpf).
    - split; [reflexivity|]. symmetry. apply A. exact Hpf. }
  eapply QV_queues; [exact V | exact L | exact W | | |].
  - intros i q q' x Hq Hq' Hm. left. destruct (Hnth _ _ Hq) as (q1 & ri & Hq1 & Hc & _). rewrite Hq' in Hq1. inversion Hq1; subst q1.
    pose proof (nth_error_Forall _ _ _ _ (qv_wf _ _ _ _ _ _ V) Hq) as Wq.
    destruct (q_cdp_spec _ _ _ _ Wq Hc) as [_ [[-> _]|(pp & Ep & En & HR)]]; [exact Hm|].
    destruct Hm as (p0 & [M|M]).
    + apply HR in M. destruct M as [M|[M ->]]; [exists p0; left; exact M|]. exists pp. right. unfold PfAt. rewrite Ep. apply PAt_some. auto.
    + unfold PfAt in M. rewrite En in M. apply PAt_none in M. destruct M.
  - intros x t q q' Hf Hq Hq' Hp. destruct (Hnth _ _ Hq) as (q1 & ri & Hq1 & Hc & Hincl). rewrite Hq' in Hq1. inversion Hq1; subst q1.
    pose proof (nth_error_Forall _ _ _ _ (qv_wf _ _ _ _ _ _ V) Hq) as Wq.
    destruct (q_cdp_spec _ _ _ _ Wq Hc) as [_ Hcase].
    unfold exp_place at 1. unfold exL. destruct (tid_mem x r) eqn:Em.
    + apply tid_mem_In in Em. destruct (Hret _ Em) as (t0 & q0 & q1 & ri0 & pp & Hf0 & Hq0 & Hc0 & Hin0 & Ep0 & Epl & Epr).
      rewrite Hf in Hf0. inversion Hf0; subst t0. rewrite Hq in Hq0. inversion Hq0; subst q0. rewrite Hc in Hc0. inversion Hc0; subst q1 ri0.
      rewrite Epl in Hp. cbn in Hp. destruct Hp as [A B].
      destruct Hcase as [[_ ->]|(pp' & Ep & En & HR)]; [destruct Hin0|].
      rewrite Ep0 in Ep. inversion Ep; subst pp'. cbn. split.
      * intros p0. rewrite HR. split; [intros [M|[_ M]]; [exfalso; exact (B _ M) | congruence] | intros ->; right; auto].
      * intros p0 M. unfold PfAt in M. rewrite En in M. apply PAt_none in M. exact M.
    + apply tid_mem_nIn in Em. fold (exp_place ex rs x (t_state t)).
      destruct Hcase as [[-> _]|(pp & Ep & En & HR)]; [exact Hp|].
      assert (Hni : ~ In x ri) by (intros Hc'; apply Em; apply Hincl; exact Hc').
      destruct (exp_place ex rs x (t_state t)); cbn in Hp |- *; destruct Hp as [A B].
      * split; [intros p0 M; apply HR in M; destruct M as [M|[M _]]; [exact (A _ M) | contradiction]|].
        intros p0 M. unfold PfAt in M. rewrite En in M. apply PAt_none in M. exact M.
      * split; [|intros p0 M; unfold PfAt in M; rewrite En in M; apply PAt_none in M; exact M].
        intros p0. rewrite HR, A. split; [intros [M|[M _]]; [exact M | contradiction] | auto].
      * exfalso. apply Hni. pose proof (proj2 (A _) eq_refl) as M. unfold PfAt in M. rewrite Ep in M. apply PAt_some in M. apply M.
  - intros x v Hv. destruct (qv_red _ _ _ _ _ _ V _ _ Hv) as (En & t & w & Hf & Hst). rewrite exL_notin; [exact En|].
    intros Hx. destruct (Hret _ Hx) as (t0 & _ & _ & _ & _ & Hf0 & _ & _ & _ & _ & Epl & _).
    rewrite Hf in Hf0. inversion Hf0; subst t0. unfold exp_place in Epl. rewrite En, Hst in Epl. cbn in Epl. rewrite Hv in Epl. discriminate.
Qed.

Lemma placed_add q pl pr id : WFQ q -> placed q pl pr id -> pl <> Prefill -> placed (q_add q id pr) Ready pr id.
Proof.
  intros W Hp Hne. destruct (q_add_spec q id pr W) as (_ & HR & HP). destruct pl; [| |congruence]; cbn in Hp; destruct Hp as [A B]; split; intros p.
  - rewrite HR. split; [intros [M|[_ M]]; [exfalso; exact (A _ M) | exact M] | auto].
  - rewrite HP. apply B.
  - rewrite HR, A. tauto.
  - rewrite HP. apply B.
Qed.

Lemma QV_add_ready ex Z ts qs rs rqs id t t' qs' r :
  QV ex Z ts qs rs rqs -> find_task ts id = Some t ->
  t_id t' = id -> t_rq t' = t_rq t -> t_prio t' = t_prio t ->
  exp_place ex rs id (t_state t) <> Prefill -> find_redirect rs id = None ->
  add_ready_task qs t' = Ok (qs', r) ->
  QV (exU (exL Ready r ex) id Ready) Z ts qs' rs rqs.
Proof.
  intros V Hf Hid Hrq Hpr Hpl Hred H. unfold add_ready_task in H.
  destruct (dispose_all qs (t_prio t')) as [qs1 r1] eqn:Ed.
  apply bind_ok in H. destruct H as (q1 & Hq1 & H). inversion H; subst qs' r1; clear H.
  pose proof (QV_dispose _ _ _ _ _ _ _ _ _ V Ed) as V1. apply nth_queue_ok in Hq1. rewrite Hid, Hrq, Hpr in *.
  pose proof (qv_task _ _ _ _ _ _ V1 _ _ _ Hf Hq1) as Hp.
  pose proof (nth_error_Forall _ _ _ _ (qv_wf _ _ _ _ _ _ V1) Hq1) as W1.
  destruct (q_add_spec q1 id (t_prio t) W1) as (W2 & HR & HP).
  eapply QV_queue1id; [exact V1 | exact Hf | exact Hq1 | exact W2 | | | | exact Hred].
  - intros x Hne p. rewrite HR. split; [intros [M|[M _]]; [exact M | contradiction] | auto].
  - intros x _ p. apply HP.
  - eapply placed_add; [exact W1 | exact Hp|]. unfold exp_place, exL. destruct (tid_mem id r); [discriminate | exact Hpl].
Qed.

Lemma QV_requeue ex Z ts qs rs rqs id t t' qs' r :
  QV ex Z ts qs rs rqs -> find_task ts id = Some t ->
  t_id t' = id -> t_rq t' = t_rq t -> t_prio t' = t_prio t ->
  exp_place ex rs id (t_state t) <> Prefill -> find_redirect rs id = None ->
  nat_place rs id (t_state t') = Ready -> t_state t' <> Finished ->
  add_ready_task qs t' = Ok (qs', r) ->
  QV (exL Ready r (exR ex id)) Z (set_task ts t') qs' rs rqs.
Proof.
  intros V Hf Hid Hrq Hpr Hpl Hred Hnat Hfin H.
  pose proof (QV_add_ready _ _ _ _ _ _ _ _ _ _ _ V Hf Hid Hrq Hpr Hpl Hred H) as V1.
  eapply QV_task0; [exact V1 | exact Hf | exact Hid | exact Hrq | exact Hpr | | | |].
  - intros x Hne. rewrite exU_other by exact Hne. unfold exL. destruct (tid_mem x r); [reflexivity | apply exR_other; exact Hne].
  - unfold exp_place at 2. rewrite exU_same. unfold exp_place, exL. destruct (tid_mem id r); [reflexivity|]. rewrite exR_same. exact Hnat.
  - intros v Hv. congruence.
  - intros Hc. contradiction.
Qed.

(** One queue changes; the ids of [a], all of them in that queue, end up at [pl] and become
    exceptions; the other ids stay where they are. *)
Lemma QV_queue1_list pl ex Z ts qs rs rqs i q q' a :
  QV ex Z ts qs rs rqs -> nth_error qs i = Some q -> WFQ q' ->
  (forall x, In x a -> member q x) -> (forall x, member q' x -> member q x) ->
  (forall pl0 pr x, In x a -> placed q pl0 pr x -> placed q' pl pr x) ->
  (forall pl0 pr x, ~ In x a -> placed q pl0 pr x -> placed q' pl0 pr x) ->
  QV (exL pl a ex) Z ts (set_queue qs i q') rs rqs.
Proof.
  intros V Hq W Hmem Hsub Hin Hout.
  assert (Hrq : forall x t, In x a -> find_task ts x = Some t -> N.to_nat (t_rq t) = i).
  { intros x t Hx Hf. destruct (qv_live _ _ _ _ _ _ V i q x Hq (Hmem _ Hx)) as (t0 & Hf0 & Hi). congruence. }
  eapply QV_queue1; [exact V | exact Hq | exact W | | | |].
  - intros x Hm. left. apply Hsub. exact Hm.
  - intros x t Hf Hi Hp. unfold exp_place at 1. unfold exL. destruct (tid_mem x a) eqn:Em.
    + apply tid_mem_In in Em. eapply Hin; eassumption.
    + apply tid_mem_nIn in Em. fold (exp_place ex rs x (t_state t)). apply Hout; assumption.
  - intros x t Hf Hi. unfold exp_place. rewrite exL_notin; [reflexivity|]. intros Hx. apply Hi. eapply Hrq; eassumption.
  - intros x v Hv. destruct (qv_red _ _ _ _ _ _ V _ _ Hv) as (En & t & w & Hf & Hst). rewrite exL_notin; [exact En|].
    intros Hx. pose proof (Hrq _ _ Hx Hf) as Hi. rewrite <- Hi in Hq. pose proof (qv_task _ _ _ _ _ _ V _ _ _ Hf Hq) as Hp.
    unfold exp_place in Hp. rewrite En, Hst in Hp. cbn in Hp. rewrite Hv in Hp.
    exact (placed_member _ _ _ _ Hp (Hmem _ Hx) eq_refl).
Qed.

Lemma QV_take ex Z ts qs rs rqs i q q' a :
  QV ex Z ts qs rs rqs -> nth_error qs i = Some q -> TakeQ q q' a ->
  QV (exL Nowhere a ex) Z ts (set_queue qs i q') rs rqs.
Proof.
  intros V Hq T. eapply QV_queue1_list; [exact V | exact Hq | exact (tk_wf _ _ _ T) | | | |].
  - intros x. apply TakeQ_taken_member with (1 := T).
  - intros x. apply TakeQ_member with (1 := T).
  - intros pl0 pr x. apply placed_take_in with (1 := T).
  - intros pl0 pr x. apply placed_take_other with (1 := T).
Qed.

Lemma QV_move ex Z ts qs rs rqs i q q' a pe :
  QV ex Z ts qs rs rqs -> nth_error qs i = Some q -> MoveQ q q' a pe ->
  QV (exL Prefill a ex) Z ts (set_queue qs i q') rs rqs.
Proof.
  intros V Hq T. eapply QV_queue1_list; [exact V | exact Hq | exact (mv_wf _ _ _ _ T) | | | |].
  - intros x Hx. exists pe. left. apply (mv_from _ _ _ _ T _ Hx).
  - intros x. apply MoveQ_member with (1 := T).
  - intros pl0 pr x Hx Hp. apply (placed_move_in _ _ _ _ _ _ _ T Hx Hp).
  - intros pl0 pr x. apply placed_move_other with (1 := T).
Qed.

Lemma QV_q_remove ex Z ts qs rs rqs id t q q' :
  QV ex Z ts qs rs rqs -> find_task ts id = Some t -> nth_error qs (N.to_nat (t_rq t)) = Some q ->
  q_remove q id (t_prio t) = Ok q' -> find_redirect rs id = None ->
  QV (exU ex id Nowhere) Z ts (set_queue qs (N.to_nat (t_rq t)) q') rs rqs.
Proof.
  intros V Hf Hq H Hred.
  pose proof (nth_error_Forall _ _ _ _ (qv_wf _ _ _ _ _ _ V) Hq) as W.
  pose proof (qv_task _ _ _ _ _ _ V _ _ _ Hf Hq) as Hp.
  destruct (q_remove_spec _ _ _ _ W H) as [W' Hcase].
  eapply QV_queue1id; [exact V | exact Hf | exact Hq | exact W' | | | | exact Hred].
  - intros x Hne p. destruct Hcase as [(_ & HR & _)|(_ & HR & _)]; rewrite HR; [reflexivity|]. split; [tauto|]. intros M. split; [exact M | intros [E _]; contradiction].
  - intros x Hne p. destruct Hcase as [(_ & _ & HP)|(_ & _ & HP)]; rewrite HP; [|reflexivity]. tauto.
  - destruct Hcase as [(Hin & HR & HP)|(Hni & HR & HP)].
    + destruct (exp_place ex rs id (t_state t)); cbn in Hp; destruct Hp as [A B]; try (exfalso; exact (B _ Hin)).
      split; intros p M; [apply HR in M; exact (B _ M) | apply HP in M; tauto].
    + destruct (exp_place ex rs id (t_state t)); cbn in Hp; destruct Hp as [A B].
      * split; intros p M; [apply HR in M; exact (A _ (proj1 M)) | apply HP in M; exact (B _ M)].
      * split; intros p M; [|apply HP in M; exact (B _ M)]. apply HR in M. destruct M as [M N]. apply N. split; [reflexivity | apply A; exact M].
      * exfalso. apply Hni. apply A. reflexivity.
Qed.

Lemma QV_q_remove_prefilled ex Z ts qs rs rqs id t q q' :
  QV ex Z ts qs rs rqs -> find_task ts id = Some t -> nth_error qs (N.to_nat (t_rq t)) = Some q ->
  q_remove_prefilled q id = Ok q' -> find_redirect rs id = None ->
  QV (exU ex id Nowhere) Z ts (set_queue qs (N.to_nat (t_rq t)) q') rs rqs.
Proof.
  intros V Hf Hq H Hred.
  pose proof (nth_error_Forall _ _ _ _ (qv_wf _ _ _ _ _ _ V) Hq) as W.
  pose proof (qv_task _ _ _ _ _ _ V _ _ _ Hf Hq) as Hp.
  destruct (q_remove_prefilled_spec _ _ _ W H) as (W' & (p0 & Hin) & HR & HP).
  eapply QV_queue1id; [exact V | exact Hf | exact Hq | exact W' | | | | exact Hred].
  - intros x _ p. apply HR.
  - intros x Hne p. rewrite HP. tauto.
  - destruct (exp_place ex rs id (t_state t)); cbn in Hp; destruct Hp as [A B]; try (exfalso; exact (B _ Hin)).
    split; intros p M; [apply HR in M; exact (B _ M) | apply HP in M; tauto].
Qed.

Lemma QV_q_move ex Z ts qs rs rqs id t q q' :
  QV ex Z ts qs rs rqs -> find_task ts id = Some t -> nth_error qs (N.to_nat (t_rq t)) = Some q ->
  q_move_prefilled_to_ready q id = Ok q' -> find_redirect rs id = None ->
  QV (exU ex id Ready) Z ts (set_queue qs (N.to_nat (t_rq t)) q') rs rqs.
Proof.
  intros V Hf Hq H Hred.
  pose proof (nth_error_Forall _ _ _ _ (qv_wf _ _ _ _ _ _ V) Hq) as W.
  pose proof (qv_task _ _ _ _ _ _ V _ _ _ Hf Hq) as Hp.
  destruct (q_move_spec _ _ _ W H) as (W' & pp & Hin & HR & HP).
  eapply QV_queue1id; [exact V | exact Hf | exact Hq | exact W' | | | | exact Hred].
  - intros x Hne p. rewrite HR. split; [intros [M|[M _]]; [exact M | contradiction] | auto].
  - intros x Hne p. rewrite HP. tauto.
  - destruct (exp_place ex rs id (t_state t)); cbn in Hp; destruct Hp as [A B]; try (exfalso; exact (B _ Hin)).
    pose proof (proj1 (A _) Hin) as E. subst pp. split; intros p.
    + rewrite HR. split; [intros [M|[_ M]]; [exfalso; exact (B _ M) | exact M] | auto].
    + rewrite HP. tauto.
Qed.

Lemma QV_uniq ex Z ts qs rs rqs i q : QV ex Z ts qs rs rqs -> nth_error qs i = Some q -> uniq q.
Proof.
  intros V Hq x. split.
  - intros p p' A B. destruct (qv_live _ _ _ _ _ _ V i q x Hq) as (t & Hf & Hi); [exists p; left; exact A|].
    rewrite <- Hi in Hq. pose proof (qv_task _ _ _ _ _ _ V _ _ _ Hf Hq) as Hp.
    destruct (exp_place ex rs x (t_state t)); cbn in Hp; destruct Hp as [P1 P2].
    + exfalso. exact (P1 _ A).
    + apply P1 in A. apply P1 in B. congruence.
    + exfalso. exact (P2 _ A).
  - intros p p' A B. destruct (qv_live _ _ _ _ _ _ V i q x Hq) as (t & Hf & Hi); [exists p; left; exact A|].
    rewrite <- Hi in Hq. pose proof (qv_task _ _ _ _ _ _ V _ _ _ Hf Hq) as Hp.
    destruct (exp_place ex rs x (t_state t)); cbn in Hp; destruct Hp as [P1 P2].
    + exact (P1 _ A).
    + exact (P2 _ B).
    + exact (P2 _ A).
Qed.
