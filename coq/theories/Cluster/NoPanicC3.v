(** C09 for client requests: [on_cancel_tasks] is total on a state satisfying the
    invariants, and so is [handle_cancel]. *)
From HQ Require Import Base.Prelude Cluster.Types Cluster.Core Cluster.Reactor Cluster.Server Cluster.ProofsJob Cluster.ProofsStep Cluster.BijBase Cluster.BijCore Cluster.BijHq Cluster.BijSt Cluster.BijReact Cluster.CrashFrame Cluster.InvWBase Cluster.InvWView Cluster.InvWCore Cluster.InvWReact Cluster.InvQBase Cluster.InvQTake Cluster.InvQInv Cluster.InvQOps Cluster.InvQReact Cluster.InvDBase Cluster.InvDSpec Cluster.InvDRem Cluster.InvDReact Cluster.NoPanicC1 Cluster.NoPanicC2.
From HQ Require Import Cluster.ModelFacts.
From Coq Require Import ZArith Lia Sorting.Sorted.
Local Open Scope N_scope.

Arguments N.add : simpl never.
Arguments N.sub : simpl never.

Lemma MNE_tasks c c' : c_tasks c' = c_tasks c -> MNE c -> MNE c'.
Proof. unfold MNE. intros ->. auto. Qed.

Lemma RWA_dom c c' : c_tasks c' = c_tasks c -> wdom c c' -> RWA c -> RWA c'.
Proof.
  intros Et Hd H t w Hin Hst. rewrite Et in Hin. destruct (H t w Hin Hst) as (wk & Hw).
  destruct (find_worker (c_workers c') w) eqn:E; [eauto|]. exfalso. apply (proj2 (Hd w)); [rewrite Hw; discriminate | exact E].
Qed.

Lemma collect_consumers_live fuel : forall ts frontier acc r, WFc ts ->
  (forall x, In x frontier -> find_task ts x <> None) -> (forall x, In x acc -> find_task ts x <> None) ->
  collect_consumers fuel ts frontier acc = Ok r -> forall x, In x r -> find_task ts x <> None.
Proof.
  induction fuel as [|k IH]; intros ts frontier acc r W Hf Ha H; destruct frontier as [|id rest]; cbn [collect_consumers] in H;
    try (inversion H; subst; exact Ha).
  apply bind_ok in H as (t & Ht & H). apply get_task_find in Ht.
  eapply IH; [exact W | | | exact H].
  - intros x Hx. apply in_app_iff in Hx. destruct Hx as [Hx|Hx]; [apply Hf; right; exact Hx|].
    apply filter_In in Hx. destruct Hx as [Hx _]. apply (proj2 (W _ _ Ht)). exact Hx.
  - intros x Hx. apply tid_insert_all_iff in Hx. destruct Hx as [Hx|Hx]; [|apply Ha; exact Hx].
    apply filter_In in Hx. destruct Hx as [Hx _]. apply (proj2 (W _ _ Ht)). exact Hx.
Qed.

Lemma recursive_consumers_live ts id t csm : WFc ts -> find_task ts id = Some t -> recursive_consumers ts t = Ok csm ->
  forall x, In x csm -> find_task ts x <> None.
Proof.
  intros W Hf H. unfold recursive_consumers in H. eapply collect_consumers_live; [exact W | | | exact H].
  - apply (proj2 (W _ _ Hf)).
  - intros x Hx. apply tid_insert_all_iff in Hx. destruct Hx as [Hx|[]]. apply (proj2 (W _ _ Hf)). exact Hx.
Qed.

Lemma try_remove_redirection_wdom c t c' : try_remove_redirection c t = Ok c' -> wdom c c'.
Proof.
  unfold try_remove_redirection. destruct (find_redirect _ _) as [[w rv]|]; intros H.
  - apply bind_ok in H as (wk & Hw & H). apply bind_ok in H as (rq & _ & H).
    apply bind_ok in H as (wk' & Hrm & H). inversion H; subst.
    apply get_worker_find in Hw. destruct (remove_sn_task_spec _ _ _ _ Hrm) as [Hid _].
    apply (wdom_upd (with_redirects c (del_redirect (c_redirects c) (t_id t))) wk' wk). cbn. rewrite Hid, (proj2 (find_worker_some _ _ _ Hw)). exact Hw.
  - inv_binds H. inversion H; subst. apply wdom_workers; reflexivity.
Qed.

Lemma reset_mn_all_wdom l c c' : reset_mn_all c l = Ok c' -> wdom c c'.
Proof.
  intros H w. destruct (reset_mn_all_spec _ _ _ H) as (_ & _ & _ & _ & Hfw). rewrite Hfw.
  destruct (n_mem w l); [|tauto]. destruct (find_worker (c_workers c) w); cbn; split; congruence.
Qed.

Lemma try_remove_redirection_tot X L c id t w :
  WIX X c -> QI (exL Nowhere L none) [] c -> find_task (c_tasks c) id = Some t -> t_state t = Retracting w -> ~ In id L ->
  exists c', try_remove_redirection c t = Ok c'.
Proof.
  intros HW V Hf Hst HnL. destruct (find_task_some _ _ _ Hf) as [_ Hid].
  unfold try_remove_redirection. rewrite Hid.
  destruct (find_redirect (c_redirects c) id) as [[w' rv]|] eqn:Er.
  - destruct (WIX_R _ _ _ _ _ HW Er) as (wk & a & p & f & Hw & Ea & Hm).
    rewrite (get_worker_ok _ _ _ Hw). cbn [bind].
    destruct (get_rq_tot (c_rqs c) (t_rq t)) as (rq & ->).
    { rewrite <- (qv_len _ _ _ _ _ _ V). exact (qv_rq _ _ _ _ _ _ V _ _ Hf). }
    cbn [bind]. destruct (remove_sn_task_tot wk id (rq_res rq) a p f Ea Hm) as (wk' & -> & _). eexists; reflexivity.
  - destruct (QV_queue _ _ _ _ _ _ _ _ V Hf) as (q & Hq & Hwf & Hp).
    rewrite (proj2 (nth_queue_ok _ _ _) Hq). cbn [bind].
    unfold exp_place in Hp. rewrite (exL_notin _ _ _ _ HnL) in Hp. unfold none in Hp. rewrite Hst in Hp. cbn [nat_place] in Hp. rewrite Er in Hp.
    destruct (q_remove_tot q id (t_prio t) Hwf (or_introl (placed_ready_at _ _ _ Hp))) as (q' & ->). eexists; reflexivity.
Qed.

Lemma cancel_release_one s id tu ru s1 tu1 ru1 :
  cancel_release s [id] tu ru = Ok (s1, tu1, ru1) -> forall r, cancel_release s (id :: r) tu ru = cancel_release s1 r tu1 ru1.
Proof.
  cbn [cancel_release]. intros H r. destruct (find_task _ id) as [t|]; [|inversion H; reflexivity].
  repeat match type of H with
  | bind ?x _ = _ => destruct x; cbn [bind] in *; try discriminate H
  | match ?x with _ => _ end = _ => destruct x; try discriminate H
  end; inversion H; reflexivity.
Qed.

Lemma cancel_release_tot ids : forall s tu ru X L,
  WIX X (core_of s) -> QI (exL Nowhere L none) [] (core_of s) -> WFc (c_tasks (core_of s)) ->
  MNE (core_of s) -> RWA (core_of s) ->
  NoDup ids -> (forall i, In i ids -> X i = false) -> (forall i, In i ids -> ~ In i L) ->
  (forall x t, In x L -> find_task (c_tasks (core_of s)) x = Some t -> is_waiting t = false) ->
  (forall w l, In (w, l) ru -> find_worker (c_workers (core_of s)) w <> None) ->
  SL tu -> (forall x, In x tu -> find_task (c_tasks (core_of s)) x <> None) ->
  exists s' tu' ru' L', cancel_release s ids tu ru = Ok (s', tu', ru') /\
    QI (exL Nowhere L' none) [] (core_of s') /\
    (forall x, In x L -> In x L') /\
    (forall x t, In x ids -> find_task (c_tasks (core_of s)) x = Some t -> is_waiting t = true \/ In x L') /\
    (forall x t, In x L' -> find_task (c_tasks (core_of s)) x = Some t -> is_waiting t = false) /\
    (forall w l, In (w, l) ru' -> find_worker (c_workers (core_of s)) w <> None) /\
    SL tu' /\ (forall x, In x tu' -> find_task (c_tasks (core_of s)) x <> None) /\
    s_procs (fst s') = s_procs (fst s).
Proof.
  induction ids as [|id r IH]; intros s tu ru X L HW V W Hmn Hrw Hnd HX HL HLw Hru Htu Htul.
  - exists s, tu, ru, L. split; [reflexivity|]. split; [exact V|]. split; [auto|]. split; [intros x t []|].
    split; [exact HLw|]. split; [exact Hru|]. split; [exact Htu|]. split; [exact Htul | reflexivity].
  - inversion Hnd as [|? ? Hni Hnd']; subst.
    destruct (find_task (c_tasks (core_of s)) id) as [t|] eqn:Hf.
    2:{ destruct (IH s tu ru X L HW V W Hmn Hrw Hnd' (fun i Hi => HX i (or_intror Hi)) (fun i Hi => HL i (or_intror Hi)) HLw Hru Htu Htul)
          as (s' & tu' & ru' & L' & Hc & P1 & P2 & P3 & P4 & P5 & P6 & P7 & P8).
        exists s', tu', ru', L'. split; [cbn [cancel_release]; rewrite Hf; exact Hc|].
        split; [exact P1|]. split; [exact P2|]. split; [intros x t0 [<-|Hx] Hf0; [congruence | eapply P3; eassumption]|].
        split; [exact P4|]. split; [exact P5|]. split; [exact P6|]. split; [exact P7 | exact P8]. }
    destruct (find_task_some _ _ _ Hf) as [Hint Hid].
    assert (Hxid : X id = false) by (apply HX; left; reflexivity).
    assert (HnL : ~ In id L) by (apply HL; left; reflexivity).
    destruct (recursive_consumers_tot _ _ _ W Hf) as (csm & Hcs).
    pose proof (recursive_consumers_live _ _ _ _ W Hf Hcs) as Hcsl.
    destruct (get_rq_tot (c_rqs (core_of s)) (t_rq t)) as (rq & Hrq).
    { rewrite <- (qv_len _ _ _ _ _ _ V). exact (qv_rq _ _ _ _ _ _ V _ _ Hf). }
    set (tu1 := tid_insert_all csm (tid_insert id tu)).
    assert (Htu1 : SL tu1) by (apply tinsall_SL, tins_SL; exact Htu).
    assert (Htul1 : forall x, In x tu1 -> find_task (c_tasks (core_of s)) x <> None).
    { intros x Hx. apply tid_insert_all_iff in Hx. destruct Hx as [Hx|Hx]; [apply Hcsl; exact Hx|].
      apply tins_iff in Hx. destruct Hx as [->|Hx]; [congruence | apply Htul; exact Hx]. }
    assert (Hadd : forall w, find_worker (c_workers (core_of s)) w <> None ->
              forall w' l, In (w', l) (group_add w id ru) -> find_worker (c_workers (core_of s)) w' <> None).
    { intros w Hw w' l Hin. destruct (group_add_keys _ _ _ _ _ Hin) as [->|(v0 & Hv0)]; [exact Hw | eapply Hru; exact Hv0]. }
    assert (Hsn : forall w, pl (t_state t) = PA w -> exists wk wk',
              get_worker (c_workers (core_of s)) w = Ok wk /\ remove_sn_task wk id (rq_res rq) = Ok wk' /\
              wdom (core_of s) (upd_worker (core_of s) wk') /\ find_worker (c_workers (core_of s)) w <> None).
    { intros w Hp. destruct (WIX_A X _ id t w HW Hxid Hf Hp) as (wk & a & p & f & Hw & Ea & Hm).
      destruct (remove_sn_task_tot wk id (rq_res rq) a p f Ea Hm) as (wk' & Hrm & Hwid).
      exists wk, wk'. split; [exact (get_worker_ok _ _ _ Hw)|]. split; [exact Hrm|]. split; [|rewrite Hw; discriminate].
      apply (wdom_upd _ wk' wk). rewrite Hwid, (proj2 (find_worker_some _ _ _ Hw)). exact Hw. }
    (* the step for [id] alone succeeds; what it changes *)
    assert (Hone : exists s1 ru1, cancel_release s [id] tu ru = Ok (s1, tu1, ru1) /\
              (is_waiting t = true -> qsame (core_of s) (core_of s1)) /\
              wdom (core_of s) (core_of s1) /\ s_procs (fst s1) = s_procs (fst s) /\
              (forall w l, In (w, l) ru1 -> find_worker (c_workers (core_of s)) w <> None)).
    { cbn [cancel_release]. rewrite Hf. cbn [bind]. rewrite Hcs. cbn [bind]. rewrite Hrq. cbn [bind]. unfold is_waiting.
      destruct (t_state t) as [n|w rv|w|w|w rv|ws|] eqn:Est.
      - exists (ask_scheduling s), ru. split; [reflexivity|]. split; [intros _; repeat split; reflexivity|].
        split; [apply wdom_workers; reflexivity|]. split; [reflexivity | exact Hru].
      - destruct (Hsn w eq_refl) as (wk & wk' & -> & Hrm & Hd & Hfw). cbn [bind]. rewrite Hrm.
        eexists _, _. split; [reflexivity|]. split; [discriminate|]. split; [exact Hd|]. split; [reflexivity | exact (Hadd w Hfw)].
      - destruct (QV_queue _ _ _ _ _ _ _ _ V Hf) as (q & Hq & Hwf & Hp).
        unfold exp_place in Hp. rewrite (exL_notin _ _ _ _ HnL) in Hp. unfold none in Hp. rewrite Est in Hp. cbn [nat_place] in Hp.
        destruct (q_remove_prefilled_tot q id _ (placed_prefill_at _ _ _ Hp)) as (q' & Hq').
        destruct (WIX_P X _ id t w HW Hxid Hf) as (wk & a & p & f & Hw & Ea & Hm); [rewrite Est; reflexivity|].
        destruct (remove_prefill_task_tot wk id a p f Ea Hm) as (wk' & Hrm & Hwid).
        rewrite (proj2 (nth_queue_ok _ _ _) Hq). cbn [bind]. rewrite Hq'. cbn [bind].
        rewrite (get_worker_ok _ _ _ Hw). cbn [bind]. rewrite Hrm.
        eexists _, _. split; [reflexivity|]. split; [discriminate|]. split; [|split; [reflexivity | apply Hadd; rewrite Hw; discriminate]].
        apply (wdom_upd (with_queues (core_of s) (set_queue (c_queues (core_of s)) (N.to_nat (t_rq t)) q')) wk' wk). cbn [with_queues c_workers]. rewrite Hwid, (proj2 (find_worker_some _ _ _ Hw)). exact Hw.
      - destruct (try_remove_redirection_tot X L _ id t w HW V Hf Est HnL) as (c' & Hc').
        destruct (Hrw t w Hint Est) as (wkr & Hwr). rewrite Hc'.
        eexists _, _. split; [reflexivity|]. split; [discriminate|]. split; [|split; [reflexivity | apply Hadd; rewrite Hwr; discriminate]].
        exact (try_remove_redirection_wdom _ _ _ Hc').
      - destruct (Hsn w eq_refl) as (wk & wk' & -> & Hrm & Hd & Hfw). cbn [bind]. rewrite Hrm.
        eexists _, _. split; [reflexivity|]. split; [discriminate|]. split; [exact Hd|]. split; [reflexivity | exact (Hadd w Hfw)].
      - assert (Hws : forall w, In w ws -> find_worker (c_workers (core_of s)) w <> None).
        { intros w Hw. destruct (WIX_M X _ id t ws w HW Hxid Hf) as (wk & root & Hfw & _); [rewrite Est; reflexivity | exact Hw | congruence]. }
        destruct (reset_mn_all_tot ws (core_of s) Hws) as (c' & Hc'). rewrite Hc'.
        destruct ws as [|w0 ws']; [exfalso; exact (Hmn t Hint Est)|].
        eexists _, _. split; [reflexivity|]. split; [discriminate|]. split; [|split; [reflexivity | apply Hadd, Hws; left; reflexivity]].
        exact (reset_mn_all_wdom _ _ _ Hc').
      - exfalso. exact (qv_fin _ _ _ _ _ _ V _ _ Hf Est). }
    destruct Hone as (s1 & ru1 & H1 & Hqs & Hd & Hpr & Hru1).
    pose proof (cancel_release_one _ _ _ _ _ _ _ H1) as Hstep.
    assert (Hnd1 : NoDup [id]) by (constructor; [intros [] | constructor]).
    assert (HX1 : forall i, In i [id] -> X i = false) by (intros i [<-|[]]; exact Hxid).
    pose proof (cancel_release_WIX [id] s tu ru X s1 tu1 ru1 HW Hnd1 HX1 H1) as HW1.
    pose proof (cancel_release_tasks _ _ _ _ _ _ _ H1) as Et.
    assert (HQ : exists L1, QI (exL Nowhere L1 none) [] (core_of s1) /\ (forall x, In x L -> In x L1) /\
                   (forall x, In x L1 -> In x L \/ (x = id /\ is_waiting t = false)) /\ (is_waiting t = true \/ In id L1)).
    { destruct (is_waiting t) eqn:Ew.
      - exists L. split; [apply (QI_same _ _ (core_of s)); [apply Hqs; reflexivity | exact V]|]. split; [auto|]. split; [auto | left; reflexivity].
      - destruct (cancel_release_QI [] [id] s tu ru s1 tu1 ru1 L V H1) as (L1 & V1 & _ & A3 & A4 & A5).
        exists L1. split; [exact V1|]. split; [exact A3|]. split.
        + intros x Hx. destruct (A4 x Hx) as [Hx'|[[<-|[]] _]]; [left; exact Hx' | right; split; reflexivity].
        + destruct (A5 id t (or_introl eq_refl) Hf) as [Hw|Hl]; [congruence | right; exact Hl]. }
    destruct HQ as (L1 & V1 & A3 & A4 & A5).
    destruct (IH s1 tu1 ru1 (fun i => tid_mem i [id] || X i) L1 HW1 V1) as (s' & tu' & ru' & L' & Hc & P1 & P2 & P3 & P4 & P5 & P6 & P7 & P8).
    + rewrite Et. exact W.
    + eapply MNE_tasks; [exact Et | exact Hmn].
    + eapply RWA_dom; [exact Et | exact Hd | exact Hrw].
    + exact Hnd'.
    + intros i Hi. cbn [tid_mem]. rewrite (HX i (or_intror Hi)).
      destruct (tid_eqb i id) eqn:E; [apply tid_eqb_eq in E; subst i; contradiction | reflexivity].
    + intros i Hi Hi1. destruct (A4 i Hi1) as [Hl|[-> _]]; [exact (HL i (or_intror Hi) Hl) | contradiction].
    + intros x t0 Hx Hf0. rewrite Et in Hf0. destruct (A4 x Hx) as [Hl|[-> Hw]]; [eapply HLw; eassumption | congruence].
    + intros w l Hin. apply Hd. eapply Hru1. exact Hin.
    + exact Htu1.
    + intros x Hx. rewrite Et. apply Htul1. exact Hx.
    + exists s', tu', ru', L'. split; [rewrite Hstep; exact Hc|]. split; [exact P1|]. split; [auto|]. split.
      { intros x t0 [<-|Hx] Hf0.
        - rewrite Hf in Hf0. inversion Hf0; subst t0. destruct A5 as [Hw|Hl]; [left; exact Hw | right; apply P2; exact Hl].
        - eapply P3; [exact Hx | rewrite Et; exact Hf0]. }
      split; [intros x t0 Hx Hf0; eapply P4; [exact Hx | rewrite Et; exact Hf0]|].
      split; [intros w l Hin; apply Hd; eapply P5; exact Hin|].
      split; [exact P6|]. split; [intros x Hx; rewrite <- Et; apply P7; exact Hx | congruence].
Qed.

Lemma remove_task_tot ex X c id t :
  QI ex [] c -> DX X (fm c) -> find_task (c_tasks c) id = Some t ->
  (t_state t = Waiting 0 -> ex id = None) ->
  exists c' stt, remove_task c id = Ok (c', stt).
Proof.
  intros V D Hf Hex. unfold remove_task. rewrite Hf.
  destruct (t_state t) as [n|w rv|w|w|w rv|ws|] eqn:Est; try (eexists; eexists; reflexivity).
  destruct (N.eqb n 0) eqn:En.
  - apply N.eqb_eq in En. subst n.
    destruct (QV_queue _ _ _ _ _ _ _ _ V Hf) as (q & Hq & Hwf & Hp).
    unfold exp_place in Hp. rewrite (Hex eq_refl), Est in Hp. cbn in Hp.
    cbn [with_tasks c_queues]. rewrite (proj2 (nth_queue_ok _ _ _) Hq). cbn [bind].
    destruct (q_remove_tot q id (t_prio t) Hwf (or_introl (placed_ready_at _ _ _ Hp))) as (q' & ->). cbn [bind].
    eexists; eexists; reflexivity.
  - cbn [bind]. assert (El : N.ltb 0 n = true) by (apply N.ltb_lt; apply N.eqb_neq in En; lia). rewrite El.
    destruct (rcf_tot (t_deps t) (c_tasks (with_tasks c (del_task (c_tasks c) id))) id) as (ts' & ->).
    + exact (dx_nd _ _ D _ _ Hf).
    + intros d dt Hd Hfd. cbn [with_tasks c_tasks] in Hfd. rewrite (find_del_task _ _ _ (qv_ts _ _ _ _ _ _ V)) in Hfd.
      destruct (tid_eqb d id); [discriminate|]. exact (dx_deps _ _ D _ _ _ _ Hf Hd Hfd).
    + eexists; eexists; reflexivity.
Qed.

Lemma remove_tasks_batched_tot ex X l : forall c,
  lax ex -> CS c -> QI ex [] c -> DX X (fm c) -> NoDup l -> incl l X ->
  (forall x, In x l -> find_task (c_tasks c) x <> None) ->
  (forall x t, In x l -> find_task (c_tasks c) x = Some t ->
     (is_waiting t = true /\ ex x = None) \/ (is_waiting t = false /\ ex x = Some Nowhere)) ->
  exists c', remove_tasks_batched c l = Ok c'.
Proof.
  induction l as [|id r IH]; intros c Hlax Hs V D Hnd Hinc Hlive Hpre; [eexists; reflexivity|].
  inversion Hnd as [|? ? Hni Hnd']; subst. cbn [remove_tasks_batched].
  destruct (find_task (c_tasks c) id) as [t|] eqn:Hf; [|exfalso; apply (Hlive id); [left; reflexivity | exact Hf]].
  destruct (remove_task_tot ex X c id t V D Hf) as (c1 & stt & H1).
  { intros Est. destruct (Hpre id t (or_introl eq_refl) Hf) as [[_ E]|[E _]]; [exact E|]. unfold is_waiting in E. rewrite Est in E. discriminate. }
  rewrite H1. cbn [bind].
  destruct (remove_task_QI ex [] [] c id c1 stt Hlax V H1) as (V1 & S1 & G1 & N1 & R1 & _).
  { intros t0 Ht0. eapply nowhere_pre; [exact V | exact Ht0|]. rewrite Hf in Ht0. inversion Ht0; subst t0.
    destruct (Hpre id t (or_introl eq_refl) Hf) as [[E _]|[_ E]]; [left; exact E | right; exact E]. }
  { intros x []. }
  destruct (remove_task_shrinks _ _ _ _ Hs H1) as [Sh _].
  destruct (remove_task_DX X c id c1 stt (CS_sorted _ Hs) D (Hinc id (or_introl eq_refl)) H1) as (_ & D1 & _).
  apply (IH c1 Hlax (shr_sorted _ _ _ Sh) V1 D1 Hnd').
  - intros x Hx. apply Hinc. right. exact Hx.
  - intros x Hx. assert (Hp : present (keys c1) x).
    { apply (shr_dom _ _ _ Sh). split.
      - apply find_task_present. destruct (find_task (c_tasks c) x) as [tx|] eqn:E; [eauto | exfalso; exact (Hlive x (or_intror Hx) E)].
      - intros [<-|[]]. contradiction. }
    apply find_task_present in Hp. destruct Hp as (tx & Etx). congruence.
  - intros x t1 Hx Hf1. destruct (S1 _ _ Hf1) as (t0 & Hf0 & Hst).
    destruct (Hpre x t0 (or_intror Hx) Hf0) as [[A B]|[A B]]; [left | right]; (split; [unfold is_waiting in *; rewrite <- Hst; exact A | exact B]).
Qed.

Lemma sorted_empty_tu : SL ([] : list tid). Proof. apply SL_nil. Qed.

Theorem on_cancel_tasks_tot s ids :
  WI (core_of s) -> QI none [] (core_of s) -> GD (core_of s) -> CS (core_of s) -> KD (K s) ->
  MNE (core_of s) -> RWA (core_of s) -> PWc s -> NoDup ids ->
  (forall x t y, find_task (c_tasks (core_of s)) x = Some t -> In y ids -> fst x = fst y -> In x ids \/ is_waiting t = true) ->
  exists s', on_cancel_tasks s ids = Ok s'.
Proof.
  intros HW V [Hts D] Hs Hd Hmn Hrw Hpw Hnd Hcl. unfold on_cancel_tasks.
  assert (W : WFc (c_tasks (core_of s))) by (eapply DX_WFc; exact D).
  destruct (cancel_release_tot ids s [] [] x0 [] HW) as (s1 & tu & ru & L' & H1 & V1 & _ & P3 & P4 & P5 & P6 & P7 & P8).
  { unfold QI in *. eapply QV_ext; [exact V|]. intros x t _. reflexivity. }
  { exact W. } { exact Hmn. } { exact Hrw. } { exact Hnd. } { intros i _. reflexivity. } { intros i _ []. }
  { intros x t []. } { intros w l []. } { apply SL_nil. } { intros x []. }
  rewrite H1. cbn [bind].
  destruct (cancel_release_spec _ _ _ _ _ _ _ Hd H1) as (E1 & _ & I3 & I4).
  pose proof (cancel_release_tasks _ _ _ _ _ _ _ H1) as Et.
  assert (Hs1 : CS (core_of s1)) by (eapply CS_keys; [exact E1 | exact Hs]).
  assert (Hcc : cclosed (fm (core_of s)) tu).
  { eapply (cancel_release_closed (c_tasks (core_of s)) ids s [] [] s1 tu ru); [exact D | reflexivity | intros x tx y [] | exact H1]. }
  assert (Efm : fm (core_of s1) = fm (core_of s)) by (unfold fm; rewrite Et; reflexivity).
  assert (D1 : DX tu (fm (core_of s1))) by (rewrite Efm; apply DX_start; [exact D | exact Hcc]).
  destruct (remove_tasks_batched_tot (exL Nowhere L' none) tu tu (core_of s1)) as (c' & H2).
  { apply lax_exL, lax_none. } { exact Hs1. } { exact V1. } { exact D1. } { apply SL_NoDup. exact P6. } { apply incl_refl. }
  { intros x Hx. rewrite Et. apply P7. exact Hx. }
  { intros x t Hx Hf. rewrite Et in Hf.
    assert (Hor : is_waiting t = true \/ In x L').
    { destruct (I4 _ Hx) as [[]|(y & Hy & Hpy & Hfy)]. destruct (Hcl _ _ _ Hf Hy Hfy) as [Hin|Hw]; [eapply P3; eassumption | left; exact Hw]. }
    destruct (is_waiting t) eqn:Ew.
    - left. split; [reflexivity|]. apply exL_notin. intros Hl. rewrite (P4 x t Hl Hf) in Ew. discriminate.
    - right. split; [reflexivity|]. destruct Hor as [Hw|Hl]; [discriminate | apply exL_in; exact Hl]. }
  rewrite H2. cbn [bind]. apply send_all_tot. intros w m Hin.
  apply in_map_iff in Hin. destruct Hin as ([w0 l0] & E & Hin). cbn in E. inversion E; subst.
  unfold has_proc. cbn [st_core fst with_core s_procs]. rewrite P8. apply Hpw. eapply P5. exact Hin.
Qed.

Lemma filter_length_le {A} (p : A -> bool) l : (length (filter p l) <= length l)%nat.
Proof. induction l as [|h t IH]; cbn [filter length]; [lia|]. destruct (p h); cbn [length]; lia. Qed.

Theorem handle_cancel_tot s jid :
  HOK (hq_of s) -> CB s -> WI (core_of s) -> QI none [] (core_of s) -> GD (core_of s) ->
  MNE (core_of s) -> RWA (core_of s) -> PWc s ->
  exists s', handle_cancel s jid = Ok s'.
Proof.
  intros Hok HC HW V HG Hmn Hrw Hpw. unfold handle_cancel.
  destruct (find_job (hq_jobs s) jid) as [j|] eqn:Ef; [|eexists; reflexivity].
  pose proof (Hok _ (find_job_in _ _ _ Ef)) as Hj. pose proof (find_job_id _ _ _ Ef) as Hjid.
  destruct (non_finished_task_ids j) as [|i0 ir] eqn:En; [eexists; reflexivity|]. cbv iota. rewrite <- En.
  assert (Hjt : jt s jid = Some (j_tasks j)) by (unfold jt, hq_of; unfold hq_jobs in Ef; rewrite Ef; reflexivity).
  destruct (on_cancel_tasks_tot s (non_finished_task_ids j)) as (s1 & H1); try assumption.
  { exact (cb_s _ HC). } { exact (cb_d _ HC). } { apply nodup_non_finished. exact (jok_sorted _ Hj). }
  { intros x t y Hf Hy Hfy. left. apply (non_finished_in _ _ (jok_sorted _ Hj)) in Hy. destruct Hy as [Hy1 _].
    assert (Hp : present (K s) x) by (apply find_task_present; eauto).
    apply (cb_b _ HC) in Hp. destruct Hp as (l & Hl & Ha). rewrite Hfy, Hy1, Hjid, Hjt in Hl. inversion Hl; subst l.
    apply (non_finished_in _ _ (jok_sorted _ Hj)). split; [congruence | exact Ha]. }
  rewrite H1. cbn [bind].
  assert (Hle : N.ltb (job_n_tasks j) (N.of_nat (length (non_finished_task_ids j))) = false).
  { apply N.ltb_ge. unfold job_n_tasks, non_finished_task_ids. rewrite map_length.
    pose proof (filter_length_le (fun kv : N * jstate => match snd kv with JW | JR => true | _ => false end) (j_tasks j)). lia. }
  unfold Reactor.csub. rewrite Hle. cbn [bind].
  pose proof (on_cancel_tasks_hq _ _ _ H1) as Ehq.
  destruct (set_cancel_state_tot s1 jid (non_finished_task_ids j) j) as (s2 & H2).
  { rewrite Ehq. exact Hok. }
  { unfold hq_jobs. change (h_jobs (s_hq (fst s1))) with (h_jobs (hq_of s1)). rewrite Ehq. exact Ef. }
  { apply nodup_non_finished. exact (jok_sorted _ Hj). }
  { intros t Ht. apply (non_finished_in _ _ (jok_sorted _ Hj)) in Ht. destruct Ht as [A B]. split; [congruence | exact B]. }
  rewrite H2. cbn [bind]. eexists; reflexivity.
Qed.
