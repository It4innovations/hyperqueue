(** C05, accounting conjunct: the theorem.

    [accounting_exact]: along every history in which no subtraction from a free counter saturates
    ([fits_run], executable: not F23, and the scheduler's answers fit), the accounting conjunct of
    [Monitors.core_ok] holds in the final state - F23 and an ill-fitting solver answer are the ONLY
    ways the server's resource accounting can go wrong.

    The monitor [worker_accounting_ok] sums the requests in THREE components (cpus, gpus, mem of the
    simulation); with a request class of four amounts on a worker of four resources the literal
    statement is false ([accounting_exact_refuted]).  The theorem therefore has the static
    hypothesis [op_dim]: a submitted request class names at most three amounts.  Without it the
    invariant holds at every index ([accounting_exact_pointwise], AcctStep.v; restated here as
    [accounting_exact_all_indices]). *)
From HQ Require Import Base.Prelude Cluster.Types Cluster.Core Cluster.Reactor Cluster.Worker Cluster.Server Cluster.Sys Cluster.Monitors Cluster.BijBase Cluster.BijFinal Cluster.InvWBase Cluster.InvWCore Cluster.InvWFinal Cluster.InvQBase Cluster.InvQStep Cluster.InvAll Cluster.InvBundle Cluster.InvWX3 Cluster.NoPanicU0 Cluster.NoPanicU20 Cluster.NoFresh Cluster.AcctBase Cluster.AcctReact Cluster.AcctReact2 Cluster.AcctServer Cluster.AcctStep.
From Coq Require Import ZArith Lia.
Local Open Scope N_scope.

Arguments N.add : simpl never.
Arguments N.sub : simpl never.

Definition rq3 (r : rqdef) : Prop := (length (rq_res r) <= 3)%nat.

Lemma tot_zero g a i : (forall x, In x a -> at_ i (g x) = 0) -> tot g a i = 0.
Proof.
  induction a as [|y r IH]; intros H; [reflexivity|]. rewrite tot_cons, (H y (or_introl eq_refl)), IH; [reflexivity|].
  intros x Hx. apply H. right. exact Hx.
Qed.

Lemma request_of_beyond c id i : Forall rq3 (c_rqs c) -> (3 <= i)%nat -> at_ i (request_of c id) = 0.
Proof.
  intros HD Hi. unfold request_of. destruct (find_task (c_tasks c) id) as [t|]; [|apply at_nil].
  destruct (nth_error (c_rqs c) (N.to_nat (t_rq t))) as [r|] eqn:E; [|apply at_nil].
  apply at_beyond. rewrite Forall_forall in HD. specialize (HD r (nth_error_In _ _ E)). unfold rq3 in HD. lia.
Qed.

Lemma accw_ok c wk : Forall rq3 (c_rqs c) -> accw (request_of c) wk -> worker_accounting_ok c wk = true.
Proof.
  intros HD HA. unfold accw in HA. unfold worker_accounting_ok. destruct (w_assign wk) as [a p f|]; [|reflexivity].
  destruct HA as [L A]. apply andb_true_iff. split.
  - apply res_fits_iff. intros i. rewrite at_sum_requests. specialize (A i). destruct (i <? 3)%nat; lia.
  - apply res_eqb_iff. apply at_ext; [rewrite res_add_length; exact L|].
    intros i. rewrite at_res_add, at_sum_requests. specialize (A i).
    destruct (i <? length f)%nat eqn:E1.
    + destruct (i <? 3)%nat eqn:E2; [exact A|]. apply Nat.ltb_ge in E2.
      rewrite (tot_zero (request_of c) a i) in A; [lia|]. intros x _. apply request_of_beyond; assumption.
    + apply Nat.ltb_ge in E1. symmetry. apply at_beyond. lia.
Qed.

Lemma ACC_ok c : Forall rq3 (c_rqs c) -> ACC c -> forallb (worker_accounting_ok c) (c_workers c) = true.
Proof. intros HD HA. apply forallb_forall. intros wk Hin. apply accw_ok; [exact HD | apply HA; exact Hin]. Qed.

Definition op_dim (o : op) : Prop := op_adds rq3 o.

Theorem accounting_exact : forall ops r m s outs,
  Forall op_wf ops -> Forall op_dim ops -> ops_ok (init_sys r m) ops = true -> fits_run (init_sys r m) ops = true ->
  run (init_sys r m) ops = Ok (s, outs) ->
  forallb (worker_accounting_ok (s_core s)) (c_workers (s_core s)) = true.
Proof.
  intros ops r m s outs Hwf Hd Hok Hfit H.
  destruct (accounting_exact_pointwise rq3 ops r m s outs Hwf Hd Hok Hfit H) as [HA HD]. apply ACC_ok; assumption.
Qed.

Theorem accounting_exact_all_indices : forall ops r m s outs,
  Forall op_wf ops -> ops_ok (init_sys r m) ops = true -> fits_run (init_sys r m) ops = true ->
  run (init_sys r m) ops = Ok (s, outs) ->
  forall wk a p f, In wk (c_workers (s_core s)) -> w_assign wk = Sn a p f ->
    length f = length (w_res wk) /\
    forall i, nth i f 0 + fold_right (fun id acc => nth i (request_of (s_core s) id) 0 + acc) 0 a = nth i (w_res wk) 0.
Proof.
  intros ops r m s outs Hwf Hok Hfit H wk a p f Hin Ea.
  assert (Hd : Forall (op_adds (fun _ => True)) ops).
  { apply Forall_forall. intros o _. destruct o; cbn; auto. apply Forall_forall. auto. }
  destruct (accounting_exact_pointwise (fun _ => True) ops r m s outs Hwf Hd Hok Hfit H) as [HA _].
  specialize (HA wk Hin). unfold accw in HA. rewrite Ea in HA. exact HA.
Qed.

Definition h_dim4 : list op :=
  [OpConnect [1; 1; 1; 1] 0;
   OpSubmit None [] (Some 1) (mkRq 0 [0; 0; 0; 1]) 0%Z CUnl false None;
   OpSched (mkSol [(0, 0, [(1, 1)])] [] [1] [])].

Example accounting_exact_refuted :
  exists s outs, Forall op_wf h_dim4 /\ ops_ok (init_sys 0 2) h_dim4 = true /\ fits_run (init_sys 0 2) h_dim4 = true /\
    run (init_sys 0 2) h_dim4 = Ok (s, outs) /\
    forallb (worker_accounting_ok (s_core s)) (c_workers (s_core s)) = false /\
    c_workers (s_core s) = [mkSW 1 (Sn [(1, 0)] [] [1; 1; 1; 0]) [1; 1; 1; 1] [] 0 false].
Proof.
  destruct (run (init_sys 0 2) h_dim4) as [[s outs]| |] eqn:E; [|vm_compute in E; discriminate | vm_compute in E; discriminate].
  exists s, outs. split; [repeat constructor; cbn; lia|]. split; [vm_compute; reflexivity|]. split; [vm_compute; reflexivity|].
  split; [reflexivity|]. vm_compute in E. inversion E; subst. split; vm_compute; reflexivity.
Qed.

(** Worker 1 has one cpu.  A = (1,0) runs there, B = (2,0) is prefilled there, C = (2,1) waits.
    The client cancels A: the server frees the cpu at once.  The worker has not seen the cancel; A
    ends, the worker starts B from its backlog by itself and reports [Finished A; RunningPrefilled B].
    Before that message is processed the scheduler gives the freed cpu to C.  Then the message
    arrives: B moves from the prefilled to the assigned set, the subtraction saturates. *)
Definition rq_cpu : rqdef := mkRq 0 [1; 0; 0].
Definition h_f23 : list op :=
  [OpConnect [1; 0; 0] 0;
   OpSubmit None [] (Some 1) rq_cpu 0%Z CUnl false None;          (* job 1: A *)
   OpSubmit None [] (Some 2) rq_cpu 0%Z CUnl false None;          (* job 2: B, C *)
   OpSched (mkSol [(0, 0, [(1, 1)])] [] [1] []);                   (* A assigned, B prefilled (max 1) *)
   OpDDown 1 []; OpDDown 1 []; OpDUp 1;                            (* NewRq, Compute; A runs *)
   OpCancel 1;                                                     (* the server releases A's cpu *)
   OpEnd 1 (1, 0) EndOk;                                           (* the worker starts B on its own *)
   OpSched (mkSol [(0, 0, [(1, 1)])] [] [1] [(0, [(2, 0)])])].     (* C gets the cpu *)
(** ... then B's reject-free start is processed, C is rejected by the worker, B ends. *)
Definition h_f23_tail : list op :=
  [OpDDown 1 []; OpDDown 1 []; OpDUp 1; OpEnd 1 (2, 0) EndOk; OpDUp 1].

Example f23_is_the_hypothesis :
  exists s outs s' outs',
    Forall op_wf (h_f23 ++ [OpDUp 1]) /\ Forall op_dim (h_f23 ++ [OpDUp 1]) /\
    ops_ok (init_sys 0 1) (h_f23 ++ [OpDUp 1]) = true /\
    run (init_sys 0 1) h_f23 = Ok (s, outs) /\
    fits_run (init_sys 0 1) h_f23 = true /\
    forallb (worker_accounting_ok (s_core s)) (c_workers (s_core s)) = true /\
    (* the message being processed is the self-started prefilled task *)
    map p_up (s_procs s) = [[UUpdates [UFinished (1, 0); URunningPrefilled (2, 0) 0]]] /\
    map (fun t => (t_id t, t_state t)) (c_tasks (s_core s)) = [((2, 0), Prefilled 1); ((2, 1), Assigned 1 0)] /\
    fits_step s (OpDUp 1) = false /\
    step s (OpDUp 1) = Ok (s', outs') /\
    forallb (worker_accounting_ok (s_core s')) (c_workers (s_core s')) = false /\
    c_workers (s_core s') = [mkSW 1 (Sn [(2, 0); (2, 1)] [] [0; 0; 0]) [1; 0; 0] [] 0 false].
Proof.
  destruct (run (init_sys 0 1) h_f23) as [[s outs]| |] eqn:E; [|vm_compute in E; discriminate | vm_compute in E; discriminate].
  destruct (step s (OpDUp 1)) as [[s' outs']| |] eqn:E'; vm_compute in E; inversion E; subst; clear E;
    [|vm_compute in E'; discriminate | vm_compute in E'; discriminate].
  eexists _, _, s', outs'.
  split; [repeat constructor; cbn; lia|]. split; [repeat constructor; cbn; lia|].
  split; [vm_compute; reflexivity|]. split; [reflexivity|]. split; [vm_compute; reflexivity|].
  split; [vm_compute; reflexivity|]. split; [vm_compute; reflexivity|]. split; [vm_compute; reflexivity|].
  split; [vm_compute; reflexivity|]. split; [exact E'|].
  vm_compute in E'. inversion E'; subst. split; vm_compute; reflexivity.
Qed.

(** ... before the repair of the add-back ([res_add_cap]: finding F29) the counter never recovered -
    at rest the worker showed two free cpus of one, and the scheduler then double-booked it; with
    the capped add-back it is exact again once the worker is empty. *)
Example f23_drift :
  exists s outs, run (init_sys 0 1) (h_f23 ++ OpDUp 1 :: h_f23_tail) = Ok (s, outs) /\
    c_workers (s_core s) = [mkSW 1 (Sn [] [] [1; 0; 0]) [1; 0; 0] [] 0 false].
Proof.
  destruct (run (init_sys 0 1) (h_f23 ++ OpDUp 1 :: h_f23_tail)) as [[s outs]| |] eqn:E; [|vm_compute in E; discriminate | vm_compute in E; discriminate].
  exists s, outs. split; [reflexivity|]. vm_compute in E. inversion E; subst. vm_compute. reflexivity.
Qed.

(** The hypotheses of [accounting_exact] are satisfiable by non-trivial histories: the prefill /
    retract / redirect histories of NoPanicU0.v, in which prefilled tasks ARE started by the worker
    on its own (without the race). *)
Example accounting_exact_hyps_ok :
  (Forall op_wf h_prefill /\ Forall op_dim h_prefill /\ ops_ok (init_sys 0 2) h_prefill = true /\ fits_run (init_sys 0 2) h_prefill = true
   /\ exists s outs, run (init_sys 0 2) h_prefill = Ok (s, outs))
  /\ (Forall op_wf h_retract_race /\ Forall op_dim h_retract_race /\ ops_ok (init_sys 0 2) h_retract_race = true /\ fits_run (init_sys 0 2) h_retract_race = true
   /\ exists s outs, run (init_sys 0 2) h_retract_race = Ok (s, outs)).
Proof.
  split.
  - split; [repeat constructor; cbn; lia|]. split; [repeat constructor; cbn; lia|]. split; [vm_compute; reflexivity|]. split; [vm_compute; reflexivity|].
    destruct (run (init_sys 0 2) h_prefill) as [[s outs]| |] eqn:E; [eauto | vm_compute in E; discriminate | vm_compute in E; discriminate].
  - split; [repeat constructor; cbn; lia|]. split; [repeat constructor; cbn; lia|]. split; [vm_compute; reflexivity|]. split; [vm_compute; reflexivity|].
    destruct (run (init_sys 0 2) h_retract_race) as [[s outs]| |] eqn:E; [eauto | vm_compute in E; discriminate | vm_compute in E; discriminate].
Qed.

Print Assumptions accounting_exact.
Print Assumptions accounting_exact_all_indices.
