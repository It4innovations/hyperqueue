(** Protocol invariant, part 20: the step theorem for all operations except scheduling and
    worker loss, from [INV], [PW] and [RWA] (all proved for reachable states); [PROTO] holds in every
    reachable state; the hypothesis [run_fresh] of the invariant proofs follows from the hypothesis
    [ops_ok] on the solver / client witnesses; the worker-side operations never panic and the
    consistency assertions of the server never fire in a reachable state. *)
From HQ Require Import Base.Prelude Cluster.Types Cluster.Core Cluster.Reactor Cluster.Worker Cluster.Server Cluster.Sys Cluster.ProofsJob Cluster.ProofsMore Cluster.ProofsTerminal Cluster.ProofsStep Cluster.ProofsFinal Cluster.BijBase Cluster.BijCore Cluster.BijHq Cluster.BijSt Cluster.BijReact Cluster.BijFinal Cluster.RejHyp Cluster.InvWBase Cluster.InvWView Cluster.InvWCore Cluster.InvQBase Cluster.InvQTake Cluster.InvQStep Cluster.InvDStep Cluster.InvAll Cluster.InvBundle Cluster.InvProcsDef Cluster.NoPanicC1 Cluster.NoPanicC2 Cluster.InvWX3 Cluster.NoPanicL0 Cluster.NoPanicU0 Cluster.NoPanicU1 Cluster.NoPanicU5 Cluster.NoPanicU6 Cluster.NoPanicU11 Cluster.NoPanicU12 Cluster.NoPanicU13 Cluster.NoPanicU14 Cluster.NoPanicU15 Cluster.NoPanicU17 Cluster.NoPanicU18.
From HQ Require Import Cluster.StepShape.
From HQ Require Import Cluster.ModelFacts.
From Coq Require Import ZArith Lia Sorting.Sorted.
Local Open Scope N_scope.

Lemma new_worker_unknown s : INV s -> PW s -> find_proc (s_procs s) (c_wcounter (s_core s) + 1) = None.
Proof.
  intros HI HPW. apply find_proc_none. rewrite HPW. intros Hin.
  destruct (inv_w _ HI) as (_ & _ & _ & Hb).
  apply in_map_iff in Hin. destruct Hin as (wk & Eid & Hwk).
  assert (Hf : find_worker (c_workers (s_core s)) (w_id wk) = Some wk) by (apply in_find_worker; [apply (inv_w _ HI) | exact Hwk]).
  assert (Hle : w_id wk <= c_wcounter (s_core s)) by (apply Hb; rewrite Hf; discriminate). lia.
Qed.

Lemma new_worker_view s x t jr : INV s -> RWA (s_core s) -> find_task (c_tasks (s_core s)) x = Some t ->
  view_of (t_state t) (c_wcounter (s_core s) + 1) jr = VN.
Proof.
  intros HI HR Hx. set (w := c_wcounter (s_core s) + 1).
  assert (Hnone : find_worker (c_workers (s_core s)) w = None).
  { destruct (find_worker (c_workers (s_core s)) w) as [wk|] eqn:E; [|reflexivity]. exfalso.
    destruct (inv_w _ HI) as (_ & _ & _ & Hb). assert (Hle : w <= c_wcounter (s_core s)) by (apply Hb; rewrite E; discriminate). unfold w in Hle. lia. }
  pose proof (inv_w _ HI) as HW.
  destruct (t_state t) as [n|w1 rv1|w1|w1|w1 rv1|[|w0 ws]|] eqn:Est; cbn [view_of]; try reflexivity.
  - destruct (N.eqb w1 w) eqn:E; [|reflexivity]. apply N.eqb_eq in E. subst w1. exfalso.
    destruct (WIX_A _ _ x t w HW eq_refl Hx) as (wk & a & p & f & Hf & _); [rewrite Est; reflexivity | congruence].
  - destruct (N.eqb w1 w) eqn:E; [|reflexivity]. apply N.eqb_eq in E. subst w1. exfalso.
    destruct (WIX_P _ _ x t w HW eq_refl Hx) as (wk & a & p & f & Hf & _); [rewrite Est; reflexivity | congruence].
  - destruct (N.eqb w1 w) eqn:E; [|reflexivity]. apply N.eqb_eq in E. subst w1. exfalso.
    destruct (HR t w (proj1 (find_task_some _ _ _ Hx)) Est) as (wk & Hf). congruence.
  - destruct (N.eqb w1 w) eqn:E; [|reflexivity]. apply N.eqb_eq in E. subst w1. exfalso.
    destruct (WIX_A _ _ x t w HW eq_refl Hx) as (wk & a & p & f & Hf & _); [rewrite Est; reflexivity | congruence].
  - destruct (N.eqb w0 w) eqn:E; [|reflexivity]. apply N.eqb_eq in E. subst w0. exfalso.
    destruct (WIX_M _ _ x t (w :: ws) w HW eq_refl Hx) as (wk & root & Hf & _); [rewrite Est; reflexivity | left; reflexivity | congruence].
Qed.

Definition not_sched_lost (o : op) : Prop := match o with OpSched _ | OpLost _ _ _ _ _ => False | _ => True end.

Theorem step_PROTO_partial s o s' outs :
  INV s -> PW s -> RWA (s_core s) -> PROTO s -> op_ok s o = true -> not_sched_lost o ->
  step s o = Ok (s', outs) -> PROTO s'.
Proof.
  intros HI HPW HR HP Hop Hns H. pose proof (INV_UH _ HI) as HU.
  destruct o; try destruct Hns.
  - eapply connect_PROTO; [exact HP | apply new_worker_unknown; assumption | | exact H]. intros x t jr Hx. eapply new_worker_view; eassumption.
  - cbn [step] in H. destruct (bad_submit_lengths _ _); [inversion H; subst; exact HP|]. change s' with (fst (s', outs)). eapply handle_submit_array_PROTO; [exact HP | exact HU | | exact Hop | exact H].
    exact (inv_fresh _ HI).
  - cbn [step] in H. destruct (bad_graph_rq _ _); [inversion H; subst; exact HP|]. destruct (dead_dep _ _ _); [inversion H; subst; exact HP|].
    change s' with (fst (s', outs)). eapply handle_submit_graph_PROTO; [exact HP | exact HU | | | exact H].
    + exact (inv_fresh _ HI).
    + cbn [op_ok] in Hop. rewrite forallb_forall in Hop. exact Hop.
  - eapply open_PROTO; eassumption.
  - eapply close_PROTO; eassumption.
  - eapply cancel_PROTO; eassumption.
  - eapply forget_PROTO; [exact HP | exact HU | exact (inv_hok _ HI) | exact H].
  - refine (worker_step_PROTO _ _ _ _ HP _ H); exact I.
  - eapply dup_step_PROTO; eassumption.
  - refine (worker_step_PROTO _ _ _ _ HP _ H); exact I.
  - refine (worker_step_PROTO _ _ _ _ HP _ H); exact I.
  - refine (worker_step_PROTO _ _ _ _ HP _ H); exact I.
  - eapply prune_PROTO; eassumption.
Qed.

Lemma INV_QR s : INV s -> QR (s_core s).
Proof.
  intros HI. destruct (inv_qs _ HI) as (_ & _ & Hm & _ & Hwf & _). split; [exact Hwf|].
  intros i q id Hq (p & [Hr|Hp]); apply (Hm i q id Hq); [left; apply in_ready_iff; eauto | right; apply in_prefill_iff; eauto].
Qed.

Theorem step_PROTO s o s' outs :
  INV s -> PW s -> RWA (s_core s) -> PROTO s -> op_ok s o = true -> step s o = Ok (s', outs) -> PROTO s'.
Proof.
  intros HI HPW HR HP Hop H.
  destruct o; try (eapply step_PROTO_partial; [exact HI | exact HPW | exact HR | exact HP | exact Hop | exact I | exact H]).
  - eapply lost_PROTO; [exact HP | apply INV_UH; exact HI | exact (inv_w _ HI) | exact H].
  - eapply sched_PROTO; [exact HP | apply INV_UH; exact HI | apply INV_QR; exact HI | exact Hop | exact H].
Qed.

Lemma ops_ok_snoc pre : forall s o, ops_ok s (pre ++ [o]) = true ->
  ops_ok s pre = true /\ forall s1 o1, run s pre = Ok (s1, o1) -> op_ok s1 o = true.
Proof.
  induction pre as [|p r IH]; cbn [app ops_ok run]; intros s o H.
  - apply andb_true_iff in H. destruct H as [H _]. split; [reflexivity|]. intros s1 o1 E. inversion E; subst. exact H.
  - apply andb_true_iff in H. destruct H as [H0 H]. rewrite H0. cbn [andb]. destruct (step s p) as [[s2 o2]| |] eqn:Es.
    + destruct (IH _ _ H) as [A B]. split; [exact A|]. intros s1 o1 E. cbn [bind] in E. apply bind_ok in E. destruct E as ([s3 o3] & E3 & E). inversion E; subst. eapply B. exact E3.
    + split; [reflexivity|]. intros s1 o1 E. discriminate.
    + split; [reflexivity|]. intros s1 o1 E. discriminate.
Qed.

Theorem reachable_PROTO ops : forall reserve maxfill s outs,
  Forall op_wf ops -> ops_ok (init_sys reserve maxfill) ops = true -> run (init_sys reserve maxfill) ops = Ok (s, outs) ->
  PROTO s /\ run_fresh (init_sys reserve maxfill) ops = true.
Proof.
  induction ops as [|o pre IH] using rev_ind; intros reserve maxfill s outs Hwf Hok H.
  - cbn in H. inversion H; subst. split; [apply PROTO_init | reflexivity].
  - apply Forall_app in Hwf. destruct Hwf as [Hwf1 Hwf2]. destruct (ops_ok_snoc _ _ _ Hok) as [Hok1 Hok2].
    destruct (run_app _ _ _ _ _ H) as (s1 & o1 & o2 & H1 & H2 & ->). cbn [run] in H2. apply bind_ok in H2. destruct H2 as ([s2 o3] & Hs & H2). cbn in H2. inversion H2; subst s2 o2. clear H2.
    destruct (IH reserve maxfill s1 o1 Hwf1 Hok1 H1) as [HP1 Hf1].
    pose proof (reachable_INV _ _ _ _ _ Hwf1 Hf1 H1) as HI1.
    pose proof (reachable_PW _ _ _ _ _ H1) as HPW1.
    destruct (reachable_MNE_RWA_MNOK _ _ _ _ _ Hwf1 Hf1 H1) as (_ & HR1 & _).
    assert (Hsf : step_fresh s1 o = true) by (apply PROTO_implies_step_fresh; [exact HP1 | apply INV_UH; exact HI1]).
    split.
    + eapply step_PROTO; [exact HI1 | exact HPW1 | exact HR1 | exact HP1 | eapply Hok2; exact H1 | exact Hs].
    + rewrite (run_fresh_snoc _ _ _ _ _ H1 Hf1), Hsf. destruct (step s1 o); reflexivity.
Qed.

Corollary reachable_INV_ops ops reserve maxfill s outs :
  Forall op_wf ops -> ops_ok (init_sys reserve maxfill) ops = true -> run (init_sys reserve maxfill) ops = Ok (s, outs) -> INV s.
Proof.
  intros Hwf Hok H. destruct (reachable_PROTO ops reserve maxfill s outs Hwf Hok H) as [_ Hf]. eapply reachable_INV; eassumption.
Qed.

Theorem worker_process_never_panics ops reserve maxfill s outs o :
  Forall op_wf ops -> ops_ok (init_sys reserve maxfill) ops = true -> run (init_sys reserve maxfill) ops = Ok (s, outs) ->
  worker_op o -> is_panic (step s o) = false.
Proof.
  intros Hwf Hok H Hw. apply worker_process_never_panics_PROTO; [|exact Hw]. exact (proj1 (reachable_PROTO ops reserve maxfill s outs Hwf Hok H)).
Qed.

Theorem worker_messages_consistent_reachable ops reserve maxfill s outs w n :
  Forall op_wf ops -> ops_ok (init_sys reserve maxfill) ops = true -> run (init_sys reserve maxfill) ops = Ok (s, outs) ->
  step s (OpDUp w) = Panic n -> ~ In n cons_sites.
Proof.
  intros Hwf Hok H Hp. destruct (reachable_PROTO ops reserve maxfill s outs Hwf Hok H) as [HP Hf].
  pose proof (worker_messages_consistent s w n HP (INV_UH _ (reachable_INV _ _ _ _ _ Hwf Hf H)) Hp) as Hn. unfold nocons in Hn.
  intros Hin. assert (X : n_mem n cons_sites = true).
  { clear -Hin. induction cons_sites as [|h t IH]; [destruct Hin|]. cbn [n_mem]. destruct Hin as [->|Hin]; [rewrite N.eqb_refl; reflexivity | rewrite (IH Hin); apply orb_true_r]. }
  congruence.
Qed.
