(** C05, accounting conjunct, part 3: reject, enable, the update loop [on_task_update] with the
    executable hypothesis [updates_fit] ("no start of a prefilled / retracting task saturates the
    free counter" = not F23), and the retract response. *)
From HQ Require Import Base.Prelude Cluster.Types Cluster.Core Cluster.Reactor Cluster.Worker Cluster.Server Cluster.Sys Cluster.Monitors Cluster.ProofsJob Cluster.ProofsStep Cluster.BijBase Cluster.BijCore Cluster.BijHq Cluster.BijSt Cluster.CrashFrame Cluster.RejHyp Cluster.InvWBase Cluster.InvWCore Cluster.InvWX1 Cluster.AcctBase Cluster.AcctReact.
From HQ Require Import Cluster.StepShape.
From HQ Require Import Cluster.ModelFacts.
From Coq Require Import ZArith Lia.
Local Open Scope N_scope.

Arguments N.add : simpl never.
Arguments N.sub : simpl never.

Lemma requeue_AI rqf rqs s t c1 s' b :
  AI rqf rqs c1 -> lk rqs (t_rq t) = rqf (t_id t) ->
  (do (qs, ret) <- add_ready_task (c_queues c1) (with_state t (Waiting 0));
   do s'' <- process_retracted (st_core s (with_queues (upd_task c1 (with_state t (Waiting 0))) qs)) ret;
   Ok (s'', true)) = Ok (s', b) -> AIS rqf rqs s'.
Proof.
  intros A1 Elk H. inv_binds H. injection H as <- _. eapply process_retracted_AI; [|eassumption].
  apply AI_with_queues, AI_upd_task; [exact A1 | exact Elk].
Qed.

Lemma task_reject_AI rqf rqs s w id rv s' b : AIS rqf rqs s -> task_reject s w id rv = Ok (s', b) -> AIS rqf rqs s'.
Proof.
  unfold task_reject. intros HA H. cbv zeta in H.
  destruct (find_task (c_tasks (core_of s)) id) as [t|] eqn:Ef; [|injection H as <- _; exact HA].
  apply bind_ok in H as (wk & Hw & H).
  match type of H with context [upd_worker (core_of s) ?k] => set (wk1 := k) in * end.
  assert (Awk1 : accw rqf wk1).
  { pose proof (AI_worker _ _ _ _ _ HA (get_worker_find _ _ _ Hw)) as Awk. subst wk1.
    destruct rv as [v|]; [|exact Awk]. destruct (nn_mem (t_rq t, v) (w_blocked wk)); [exact Awk | apply accw_blocked; exact Awk]. }
  assert (A0 : AI rqf rqs (upd_worker (core_of s) wk1)) by (apply AI_upd_worker; assumption).
  apply bind_ok in H as (rq & Hrq & H). pose proof (AI_get_rq _ _ _ _ _ _ HA Ef Hrq) as Erq.
  pose proof (proj1 (AI_find _ _ _ _ _ HA Ef)) as Elk.
  apply bind_ok in H as ([c1 cont] & Hx & H).
  assert (A1 : AI rqf rqs c1).
  { destruct (t_state t) as [n|w1 rv1|w1|w1|w1 rv1|ws|]; try discriminate.
    - destruct (negb (N.eqb w w1)), rv as [v|]; try (injection Hx as <- _; exact A0).
      destruct (N.eqb v rv1); [|injection Hx as <- _; exact A0].
      step_bind Hx. injection Hx as <- _.
      apply AI_upd_worker; [exact A0|]. eapply accw_remove; [exact Awk1 | eassumption | exact Erq].
    - inv_binds Hx. injection Hx as <- _.
      apply AI_upd_worker; [exact A0|]. eapply accw_remove_prefill; [exact Awk1 | eassumption].
    - destruct (negb (N.eqb w w1)); injection Hx as <- _; exact A0. }
  destruct (t_state t) as [n|w1 rv1|w1|w1|w1 rv1|ws|]; try (eapply requeue_AI; eassumption).
  destruct cont; [|injection H as <- _; exact A1].
  destruct (find_redirect (c_redirects c1) id) as [[target rvt]|]; [|eapply requeue_AI; eassumption].
  step_bind H. injection H as <- _. unfold AIS. erewrite send_worker_core by eassumption.
  apply (AI_upd_task _ _ (with_redirects c1 _)); [exact A1 | exact Elk].
Qed.

Lemma request_enabled_AI rqf rqs s w rq rv s' : AIS rqf rqs s -> request_enabled s w rq rv = Ok s' -> AIS rqf rqs s'.
Proof.
  unfold request_enabled. intros HA H. apply bind_ok in H as (wk & Hw & H). injection H as <-.
  apply AI_upd_worker; [exact HA|]. apply accw_blocked. exact (AI_worker _ _ _ _ _ HA (get_worker_find _ _ _ Hw)).
Qed.

Definition update_fits (s : st) (w : wid) (u : wupdate) : bool :=
  match u with
  | URunning t _ | URunningPrefilled t _ => running_fits s w t
  | _ => true
  end.

Fixpoint updates_fit (s : st) (w : wid) (us : list wupdate) : bool :=
  match us with
  | [] => true
  | u :: r =>
      update_fits s w u
      && match apply_one s w u with
         | Ok (s', _) => updates_fit s' w r
         | _ => true
         end
  end.

Lemma apply_one_AI rqf rqs s w u s' n : AIS rqf rqs s -> update_fits s w u = true -> apply_one s w u = Ok (s', n) -> AIS rqf rqs s'.
Proof.
  intros HA HF H. destruct u as [t|t k|t rv|t rv|t rv|rq rv]; cbn [apply_one update_fits] in *.
  - eapply task_finished_AI; eassumption.
  - step_bind H. injection H as <- _. eapply task_failed_AI; eassumption.
  - eapply task_running_AI; eassumption.
  - eapply task_running_AI; eassumption.
  - eapply task_reject_AI; eassumption.
  - step_bind H. injection H as <- _. eapply request_enabled_AI; eassumption.
Qed.

Lemma apply_updates_AI rqf rqs us : forall s w need s' need',
  AIS rqf rqs s -> updates_fit s w us = true -> apply_updates s w us need = Ok (s', need') -> AIS rqf rqs s'.
Proof.
  intros s w need s' need' HA HF H.
  refine (apply_updates_rel_inv (fun a b : st => AIS rqf rqs a -> AIS rqf rqs b) (fun a w0 l => updates_fit a w0 l = true)
            (fun a P => P) (fun a b c A B P => B (A P)) _ us s w need s' need' HF H HA).
  intros a w0 u r a1 n HF0 Hx. cbn [updates_fit] in HF0. apply andb_true_iff in HF0 as [HF1 HF2]. rewrite Hx in HF2.
  split; [intros HA0; eapply apply_one_AI; eassumption | exact HF2].
Qed.

Lemma on_task_update_AI rqf rqs s w us s' :
  AIS rqf rqs s -> updates_fit s w us = true -> on_task_update s w us = Ok s' -> AIS rqf rqs s'.
Proof.
  unfold on_task_update. intros HA HF H. apply bind_ok in H as ([s1 need] & Hx & H).
  destruct (need && _); injection H as <-; exact (apply_updates_AI _ _ _ _ _ _ _ _ HA HF Hx).
Qed.

Lemma retract_response_states_AI rqf rqs ids : forall c w acc c' acc',
  AI rqf rqs c -> retract_response_states c w ids acc = (c', acc') -> AI rqf rqs c'.
Proof.
  induction ids as [|id r IH]; cbn [retract_response_states]; intros c w acc c' acc' HA H; [injection H as <- _; exact HA|].
  destruct (find_task (c_tasks c) id) as [t|] eqn:Ef; [|eapply IH; eassumption].
  destruct (t_state t); try (eapply IH; eassumption).
  destruct (N.eqb w w0); [|eapply IH; eassumption].
  destruct (find_redirect (c_redirects c) id) as [[target rv]|]; (eapply IH; [|exact H]); eapply AI_with_state; eassumption.
Qed.

Lemma on_retract_response_AI rqf rqs s w ids s' : AIS rqf rqs s -> on_retract_response s w ids = Ok s' -> AIS rqf rqs s'.
Proof.
  unfold on_retract_response. intros HA H. destruct (retract_response_states (core_of s) w ids []) as [c' groups] eqn:E.
  apply bind_ok in H as (s2 & H2 & H).
  assert (X2 : AIS rqf rqs s2).
  { unfold AIS. rewrite (send_redirected_core _ _ _ H2). eapply retract_response_states_AI; eassumption. }
  destruct (retract_wakes _ _ _ _); injection H as <-; exact X2.
Qed.
