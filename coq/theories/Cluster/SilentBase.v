(** C01 / C08, ordering facts about the event stream: a generic "shape" pass.

    For an arbitrary predicate [Q] on outputs that holds of all the "plain" outputs (every event
    except [EvStarted] / [EvFinished] / [EvFailed], every client response, [ONewWorker]) the pass
    shows, function by function, that a piece of the server's execution only APPENDS outputs to
    the stream and that all of them satisfy [Q], provided the three per-task events it may emit
    satisfy [Q]:
      - [EvStarted t i ws rv] comes from [task_running s w t rv] only (update [URunning t rv] /
        [URunningPrefilled t rv] of a worker message),
      - [EvFinished t] comes from [task_finished s w t] only (update [UFinished t]),
      - [EvFailed t k] comes from [task_failed s w t k] only: update [UFailed t k] of a worker
        message, or [lost_fail_running] after a worker loss with k = FNeverRestart / FCrashLimit.
    [step_Q] is the statement for one operation of the system.  Instances: "no start is emitted"
    (SilentStart.v), "EvFinished x is emitted only while a message with UFinished x is processed"
    (SilentRan.v). *)
From HQ Require Import Base.Prelude Cluster.Types Cluster.Core Cluster.Reactor Cluster.Worker Cluster.Server Cluster.Sys Cluster.Monitors Cluster.ProofsJob Cluster.ProofsMore Cluster.ProofsTerminal Cluster.ProofsStep Cluster.ProofsFinal Cluster.BijBase Cluster.BijHq Cluster.ProofsOnce Cluster.RejHyp Cluster.ReactSplit.
From Coq Require Import ZArith Lia.
Local Open Scope N_scope.

Arguments N.add : simpl never.
Arguments N.sub : simpl never.

(** Outputs every server function may emit. *)
Definition plain (o : out) : Prop :=
  match o with
  | OEv (EvStarted _ _ _ _) | OEv (EvFinished _) | OEv (EvFailed _ _) => False
  | OEv _ | OResp _ | ONewWorker _ => True
  | _ => False
  end.

(** Outputs [Sys.step] itself adds (message deliveries, launches, the prune request). *)
Definition direct (o : out) : Prop :=
  match o with ODown _ _ | OLaunch _ | OUp _ _ | OPrune _ _ => True | _ => False end.

Section Shape.
Variable Q : out -> Prop.
Hypothesis Q_plain : forall o, plain o -> Q o.

(** [EX s s']: the stream was extended by outputs that all satisfy [Q]. *)
Definition EX (s s' : st) : Prop := exists ext, snd s' = snd s ++ ext /\ Forall Q ext.

Lemma EX_refl s : EX s s.
Proof. exists []. split; [rewrite app_nil_r; reflexivity | constructor]. Qed.

Lemma EX_snd s s' : snd s' = snd s -> EX s s'.
Proof. intros E. exists []. split; [rewrite app_nil_r; exact E | constructor]. Qed.

Lemma EX_trans s1 s2 s3 : EX s1 s2 -> EX s2 s3 -> EX s1 s3.
Proof.
  intros (e1 & E1 & F1) (e2 & E2 & F2). exists (e1 ++ e2). split; [rewrite E2, E1, app_assoc; reflexivity|].
  apply Forall_app. split; assumption.
Qed.

Lemma EX_one s s' o : snd s' = snd s ++ [o] -> Q o -> EX s s'.
Proof. intros E Ho. exists [o]. split; [exact E | constructor; [exact Ho | constructor]]. Qed.

Lemma EX_emit s o : Q o -> EX s (emit s o).
Proof. intros Ho. apply (EX_one s (emit s o) o); [reflexivity | exact Ho]. Qed.

Lemma EX_emit_plain s o : plain o -> EX s (emit s o).
Proof. intros Ho. apply EX_emit. apply Q_plain. exact Ho. Qed.

Lemma check_termination_EX s jid s' : check_termination s jid = Ok s' -> EX s s'.
Proof.
  unfold check_termination. intros H. apply bind_ok in H. destruct H as (j & _ & H). apply bind_ok in H. destruct H as (na & _ & H).
  destruct na; [|inversion H; apply EX_refl]. destruct (j_open j); inversion H; subst; [apply EX_refl|].
  apply (EX_one s _ (OEv (EvCompleted jid))); [reflexivity | apply Q_plain; exact I].
Qed.

Lemma process_task_started_EX s t i ws rv s' :
  Q (OEv (EvStarted t i ws rv)) -> process_task_started s t i ws rv = Ok s' -> EX s s'.
Proof.
  intros Hq H. unfold process_task_started in H. apply bind_ok in H. destruct H as (j & _ & H).
  destruct (jt_find _ _); [|discriminate]. inversion H; subst.
  apply (EX_one s _ (OEv (EvStarted t i ws rv))); [reflexivity | exact Hq].
Qed.

Lemma process_task_finished_EX s t s' :
  Q (OEv (EvFinished t)) -> process_task_finished s t = Ok s' -> EX s s'.
Proof.
  intros Hq H. unfold process_task_finished in H. apply bind_ok in H. destruct H as (j & _ & H).
  destruct (jt_find _ _) as [[]|]; try discriminate.
  apply bind_ok in H. destruct H as (nr & _ & H).
  eapply EX_trans; [|eapply check_termination_EX; exact H].
  apply (EX_one s _ (OEv (EvFinished t))); [reflexivity | exact Hq].
Qed.

Lemma abort_tasks_EX s jid ids s' : abort_tasks s jid ids = Ok s' -> EX s s'.
Proof.
  unfold abort_tasks. destruct ids as [|i0 ir] eqn:Eids; [intros H; inversion H; apply EX_refl|]. rewrite <- Eids.
  intros H. apply bind_ok in H. destruct H as (j & _ & H). apply bind_ok in H. destruct H as (j1 & _ & H).
  eapply EX_trans; [|eapply check_termination_EX; exact H].
  apply (EX_one s _ (OEv (EvAborted ids))); [reflexivity | apply Q_plain; exact I].
Qed.

Lemma set_cancel_state_EX s jid ids s' : set_cancel_state s jid ids = Ok s' -> EX s s'.
Proof.
  unfold set_cancel_state. destruct ids as [|i0 ir] eqn:Eids; [intros H; inversion H; apply EX_refl|]. rewrite <- Eids.
  intros H. apply bind_ok in H. destruct H as (j & _ & H). apply bind_ok in H. destruct H as (j1 & _ & H).
  eapply EX_trans; [|eapply check_termination_EX; exact H].
  exists [OEv (EvJobCancel jid); OEv (EvCanceled ids)]. split; [unfold emit; cbn [fst snd]; rewrite <- app_assoc; reflexivity|].
  constructor; [apply Q_plain; exact I|]. constructor; [apply Q_plain; exact I | constructor].
Qed.

Lemma process_worker_lost_EX s w running reason s' : process_worker_lost s w running reason = Ok s' -> EX s s'.
Proof.
  unfold process_worker_lost. intros H. apply bind_ok in H. destruct H as (s1 & H1 & H). inversion H; subst.
  apply (EX_one s _ (OEv (EvWLost w reason))); [cbn; rewrite (set_waiting_all_snd _ _ _ H1); reflexivity | apply Q_plain; exact I].
Qed.

Lemma process_task_failed_EX s t aborted k s' ids :
  Q (OEv (EvFailed t k)) -> process_task_failed s t aborted k = Ok (s', ids) -> EX s s'.
Proof.
  intros Hq Hc. unfold process_task_failed in Hc.
  apply bind_ok in Hc. destruct Hc as (s1 & H1 & Hc).
  apply bind_ok in Hc. destruct Hc as (j & _ & Hc).
  apply bind_ok in Hc. destruct Hc as (j1 & _ & Hc).
  apply bind_ok in Hc. destruct Hc as (s2 & H2 & Hc).
  apply bind_ok in Hc. destruct Hc as (j2 & _ & Hc).
  assert (E2 : EX s s2).
  { eapply EX_trans; [eapply abort_tasks_EX; exact H1|].
    eapply EX_trans; [|eapply check_termination_EX; exact H2].
    apply (EX_one s1 _ (OEv (EvFailed t k))); [reflexivity | exact Hq]. }
  destruct (j_maxfails j2) as [mf|]; [|inversion Hc; subst; exact E2].
  destruct (N.ltb mf (j_nfail j2)); [|inversion Hc; subst; exact E2].
  apply bind_ok in Hc. destruct Hc as (s3 & H3 & Hc). inversion Hc; subst.
  eapply EX_trans; [exact E2 | eapply abort_tasks_EX; exact H3].
Qed.

Lemma task_failed_EX s w id k s' : Q (OEv (EvFailed id k)) -> task_failed s w id k = Ok s' -> EX s s'.
Proof.
  intros Hq H. apply task_failed_split in H. destruct (find_task _ id) as [t|]; [|subst; apply EX_refl].
  destruct H as (c1 & csm & c2 & c3 & stt & s1 & ids & _ & _ & _ & _ & H4 & H).
  eapply EX_trans; [exact (process_task_failed_EX _ _ _ _ _ _ Hq H4)|].
  destruct ids; [subst; apply EX_refl|]. apply EX_snd. eapply on_cancel_tasks_snd; exact H.
Qed.

Lemma task_finished_EX s w id s' b : Q (OEv (EvFinished id)) -> task_finished s w id = Ok (s', b) -> EX s s'.
Proof.
  intros Hq H. apply task_finished_split in H. destruct (find_task _ id) as [t|]; [|subst; apply EX_refl].
  destruct H as (c1 & s1 & c3 & rt & s2 & c4 & _ & Hf & _ & Hr & _ & ->).
  eapply EX_trans; [exact (process_task_finished_EX _ _ _ Hq Hf)|]. apply EX_snd. exact (process_retracted_snd _ _ _ Hr).
Qed.

Lemma task_running_EX s w id rv s' b :
  (forall i ws, Q (OEv (EvStarted id i ws rv))) -> task_running s w id rv = Ok (s', b) -> EX s s'.
Proof.
  intros Hq H. apply task_running_split in H. destruct (find_task _ id) as [t|]; [|subst; apply EX_refl].
  destruct H as (s1 & ws & _ & S1 & H2 & _).
  eapply EX_trans; [apply EX_snd; exact S1 | eapply process_task_started_EX; [apply Hq | exact H2]].
Qed.

(** What an update of a worker message may make the server emit. *)
Definition Qu (u : wupdate) : Prop :=
  match u with
  | UFinished t => Q (OEv (EvFinished t))
  | UFailed t k => Q (OEv (EvFailed t k))
  | URunning t rv | URunningPrefilled t rv => forall i ws, Q (OEv (EvStarted t i ws rv))
  | UReject _ _ | UEnable _ _ => True
  end.

Lemma request_enabled_snd s w rq rv s' : request_enabled s w rq rv = Ok s' -> snd s' = snd s.
Proof. unfold request_enabled. intros H. inv_binds H. inversion H; reflexivity. Qed.

Lemma apply_one_EX s w u s' n : Qu u -> RejHyp.apply_one s w u = Ok (s', n) -> EX s s'.
Proof.
  intros Hq H. destruct u; cbn [RejHyp.apply_one Qu] in *.
  - eapply task_finished_EX; eassumption.
  - apply bind_ok in H. destruct H as (sx & Hf & H). inversion H; subst. eapply task_failed_EX; eassumption.
  - eapply task_running_EX; eassumption.
  - eapply task_running_EX; eassumption.
  - apply EX_snd. eapply task_reject_snd; exact H.
  - apply bind_ok in H. destruct H as (sx & Hf & H). inversion H; subst. apply EX_snd. eapply request_enabled_snd; exact Hf.
Qed.

Lemma on_task_update_EX s w us s' : Forall Qu us -> on_task_update s w us = Ok s' -> EX s s'.
Proof.
  apply (on_task_update_rel_of EX Qu w EX_refl EX_trans (fun x u x' n => apply_one_EX x w u x' n)).
  intros x. apply EX_snd. reflexivity.
Qed.

Definition Qlost : Prop := forall id, Q (OEv (EvFailed id FNeverRestart)) /\ Q (OEv (EvFailed id FCrashLimit)).

Lemma lost_fail_running_EX l : forall s reason s', Qlost -> lost_fail_running s reason l = Ok s' -> EX s s'.
Proof.
  intros s reason s' Hq. apply (lost_fail_running_rel EX EX_refl EX_trans); [intros; apply EX_snd; reflexivity|].
  intros s0 id k s1 [-> | ->] Hf; (eapply task_failed_EX; [|exact Hf]); apply (Hq id).
Qed.

Lemma on_remove_worker_EX s w reason a p t s' : Qlost -> on_remove_worker s w reason a p t = Ok s' -> EX s s'.
Proof.
  intros Hq Hc. destruct (on_remove_worker_split _ _ _ _ _ _ _ Hc) as (wk & c2 & running & rt & s3 & s4 & s6 & s7 & _ & _ & _ & _ & _ & S4 & H6 & H7 & ->).
  eapply EX_trans; [apply (EX_snd s (broadcast s4 (DLostWorker w))); exact S4|].
  eapply EX_trans; [eapply process_worker_lost_EX; exact H6|].
  eapply EX_trans; [eapply lost_fail_running_EX; [exact Hq | exact H7]|]. apply EX_snd. reflexivity.
Qed.

Lemma submit_ok_resp_EX s jid s' : submit_ok_resp s jid = Ok s' -> EX s s'.
Proof. unfold submit_ok_resp. intros H. inv_binds H. inversion H; subst. apply EX_emit_plain. exact I. Qed.

Lemma submit_job_EX s jid is_new n mf : EX s (submit_job s jid is_new n mf).
Proof.
  apply (EX_one s _ (OEv (EvSubmit jid is_new n))); [unfold submit_job; destruct is_new; reflexivity | apply Q_plain; exact I].
Qed.

Lemma submit_tail_EX s4 jid ids tasks s' : submit_tail s4 jid ids tasks = Ok s' -> EX s4 s'.
Proof.
  unfold submit_tail. intros H. apply bind_ok in H. destruct H as (j & _ & H). apply bind_ok in H. destruct H as (j' & _ & H).
  apply bind_ok in H. destruct H as (s6 & H6 & H).
  eapply EX_trans; [apply EX_snd; exact (on_new_tasks_snd _ _ _ H6) | eapply submit_ok_resp_EX; exact H].
Qed.

Lemma handle_submit_array_EX s jobsel ids entries rq prio cl tlim mf s' :
  handle_submit_array s jobsel ids entries rq prio cl tlim mf = Ok s' -> EX s s'.
Proof.
  intros H. destruct (handle_submit_array_spec _ _ _ _ _ _ _ _ _ _ H) as [(c & a & ->)|(jid & is_new & ids' & s4 & rqi & _ & _ & Erq & Ht)];
    [apply EX_emit_plain; exact I|].
  eapply EX_trans; [apply submit_job_EX|]. eapply EX_trans; [|eapply submit_tail_EX; exact Ht].
  apply EX_snd. pose proof (get_or_create_rq_snd (submit_job s jid is_new (N.of_nat (length ids')) mf) rq) as S4. rewrite Erq in S4. exact S4.
Qed.

Lemma handle_submit_graph_EX s jobsel rqs ts mf s' :
  handle_submit_graph s jobsel rqs ts mf = Ok s' -> EX s s'.
Proof.
  intros H. destruct (handle_submit_graph_spec _ _ _ _ _ _ H) as [(r & ->)|(jid & is_new & s4 & rqis & tasks & _ & Erq & _ & Ht)];
    [apply EX_emit_plain; exact I|].
  eapply EX_trans; [apply submit_job_EX|]. eapply EX_trans; [|eapply submit_tail_EX; exact Ht].
  apply EX_snd. exact (fold_rqs_snd _ _ _ _ _ Erq).
Qed.

Lemma handle_cancel_EX s j s' : handle_cancel s j = Ok s' -> EX s s'.
Proof.
  intros H. unfold handle_cancel in H. destruct (find_job _ j) as [jb|]; [|inversion H; subst; apply EX_emit_plain; exact I].
  destruct (non_finished_task_ids jb) eqn:En; [inversion H; subst; apply EX_emit_plain; exact I|]. rewrite <- En in H.
  apply bind_ok in H. destruct H as (s1 & H1 & H). apply bind_ok in H. destruct H as (al & _ & H).
  apply bind_ok in H. destruct H as (s2 & H2 & H). inversion H; subst.
  eapply EX_trans; [apply EX_snd; eapply on_cancel_tasks_snd; exact H1|].
  eapply EX_trans; [eapply set_cancel_state_EX; exact H2|]. apply EX_emit_plain. exact I.
Qed.

Lemma Forall_map_launch ls : (forall x, direct x -> Q x) -> Forall Q (map OLaunch ls).
Proof. intros Hd. induction ls as [|l r IH]; [constructor | constructor; [apply Hd; exact I | exact IH]]. Qed.

(** When may an operation make the server emit a per-task event. *)
Definition op_cond (s : sys) (o : op) : Prop :=
  match o with
  | OpDUp w => forall p us rest, find_proc (s_procs s) w = Some p -> p_up p = UUpdates us :: rest -> Forall Qu us
  | OpLost _ _ _ _ _ => Qlost
  | _ => True
  end.

Lemma EX_eq s (x y : st) : Ok x = Ok y -> EX s x -> EX s y.
Proof. intros E. inversion E; subst. auto. Qed.

Lemma EX_nil s' outs (s : sys) : EX (s, []) (s', outs) -> Forall Q outs.
Proof. intros (ext & E & F). cbn in E. subst outs. exact F. Qed.

Theorem step_Q s o s' outs :
  (forall x, direct x -> Q x) -> op_cond s o -> step s o = Ok (s', outs) -> Forall Q outs.
Proof.
  intros Hd Hc H. revert Hc.
  refine (step_walk_op (fun o a b => op_cond (fst a) o -> Forall Q (snd b)) _ _ _ _ _ _ _ _ _ _ _ _ _ _ _ _ _ s o s' outs H);
    clear s o s' outs H.
  - intros a rs g [b1 b2] H _. apply (EX_nil b1 b2 a). unfold on_new_worker in H. cbv zeta in H. inversion H; subst.
    exists [OEv (EvWConn (c_wcounter (s_core a) + 1)); ONewWorker (c_wcounter (s_core a) + 1)]. split; [reflexivity|].
    constructor; [apply Q_plain; exact I|]. constructor; [apply Q_plain; exact I | constructor].
  - intros a w reason ao po to pw [b1 b2] _ H Hc. apply (EX_nil b1 b2 a). eapply on_remove_worker_EX; eassumption.
  - intros. cbn [snd]. constructor; [apply Q_plain; exact I | constructor].
  - intros. cbn [snd]. constructor; [apply Q_plain; exact I | constructor].
  - intros a job ids entries rq prio cl tlim mf [b1 b2] H _. apply (EX_nil b1 b2 a). eapply handle_submit_array_EX; exact H.
  - intros a job rqs ts mf [b1 b2] H _. apply (EX_nil b1 b2 a). eapply handle_submit_graph_EX; exact H.
  - intros a mf [b1 b2] H _. unfold handle_open in H. inversion H; subst. cbn [snd].
    constructor; [apply Q_plain; exact I|]. constructor; [apply Q_plain; exact I | constructor].
  - intros a j [b1 b2] H _. apply (EX_nil b1 b2 a). unfold handle_close in H.
    destruct (find_job _ j) as [jb|]; [|eapply EX_eq; [exact H|]; apply EX_emit_plain; exact I].
    destruct (j_open jb); [|eapply EX_eq; [exact H|]; apply EX_emit_plain; exact I].
    apply bind_ok in H. destruct H as (s1 & H1 & H). eapply EX_eq; [exact H|].
    eapply EX_trans; [|apply EX_emit_plain; exact I]. eapply EX_trans; [|eapply check_termination_EX; exact H1].
    match goal with |- EX ?x (emit ?y ?o) => apply (EX_one x (emit y o) o); [reflexivity | apply Q_plain; exact I] end.
  - intros a j [b1 b2] H _. apply (EX_nil b1 b2 a). eapply handle_cancel_EX; exact H.
  - intros a j [b1 b2] H _. apply (EX_nil b1 b2 a). unfold handle_forget in H.
    destruct (find_job _ j) as [jb|]; [|eapply EX_eq; [exact H|]; apply EX_emit_plain; exact I].
    apply bind_ok in H. destruct H as (na & _ & H).
    destruct (negb (j_open jb) && na); (eapply EX_eq; [exact H|]);
      match goal with |- EX ?x (emit ?y ?o) => apply (EX_one x (emit y o) o); [reflexivity | apply Q_plain; exact I] end.
  - intros a w p m rest [b1 b2] Hp Eu H Hc. cbn [snd]. destruct m.
    + match type of H with on_task_update ?s1 _ _ = _ => assert (T : EX s1 (b1, b2)) by (eapply on_task_update_EX; [exact (Hc p us rest Hp Eu) | exact H]) end.
      destruct T as (ext & E & F). cbn [snd] in E. rewrite E. constructor; [apply Hd; exact I | exact F].
    + unfold on_retract_response in H. destruct (retract_response_states _ w ids []) as [c' groups].
      apply bind_ok in H. destruct H as (s2 & H & H2).
      assert (Es : snd (b1, b2) = snd s2) by (destruct (retract_wakes _ _ _ _); inversion H2; subst; reflexivity).
      cbn [snd] in Es. rewrite Es.
      pose proof (send_redirected_snd _ _ _ H) as E. cbn [snd st_core] in E. rewrite E. constructor; [apply Hd; exact I | constructor].
  - intros a sol [b1 b2] _ H _. pose proof (run_scheduling_snd _ _ _ H) as E. cbn [snd] in E |- *. rewrite E. constructor.
  - intros. cbn [snd]. constructor; [apply Hd; exact I | constructor].
  - intros. cbn [snd]. constructor; [apply Hd; exact I | apply Forall_map_launch; exact Hd].
  - intros. cbn [snd]. apply Forall_map_launch. exact Hd.
  - intros. constructor.
  - intros. constructor.
Qed.

End Shape.
