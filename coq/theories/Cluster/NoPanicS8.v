(** C09 for the scheduling step: the theorem for reachable states, witnesses that the
    contract [sol_ok] is satisfiable in non-trivial reachable states, and witnesses that each of its
    conjuncts is needed (a reachable state + an answer violating only that conjunct = a panic). *)
From HQ Require Import Base.Prelude Cluster.Types Cluster.Core Cluster.Server Cluster.Sys Cluster.RejHyp Cluster.BijFinal Cluster.InvQBase Cluster.InvQTake Cluster.InvProcsDef Cluster.InvBundle Cluster.NoPanicS1 Cluster.NoPanicS7.
From Coq Require Import ZArith Lia.
Local Open Scope N_scope.

Arguments N.add : simpl never.

Corollary scheduling_never_panics_reachable ops reserve maxfill s outs sol :
  Forall op_wf ops -> run_fresh (init_sys reserve maxfill) ops = true -> run (init_sys reserve maxfill) ops = Ok (s, outs) ->
  PW s -> sol_ok (s_core s) sol = true -> is_panic (step s (OpSched sol)) = false.
Proof.
  intros Hwf Hf H HP Hok. apply scheduling_never_panics; [eapply reachable_INV; eassumption | exact HP | exact Hok].
Qed.

(** * Reading of the [take_ones] conjunct: with well-formed non-empty entries it says
    "at most as many worker sets as ready tasks in the class's queue". *)
Lemma q_take_one_some q : WFQ q -> q_ready q <> [] -> Forall (fun e => qe_ids e <> []) (q_ready q) ->
  exists x q', q_take_one q = Some (x, q') /\ esize (q_ready q') + 1 = esize (q_ready q) /\ Forall (fun e => qe_ids e <> []) (q_ready q').
Proof.
  intros [W _] Hne F. unfold q_take_one. destruct (q_ready q) as [|e t]; [congruence|]. inversion F as [|? ? He Ft]; subst.
  destruct (WFE_inv _ _ W) as ((_ & Hone) & _).
  destruct (qe_ids e) as [|x rest] eqn:Ei; [congruence|].
  assert (E1 : esize (e :: t) = 1 + nlen rest + esize t) by (cbn [esize]; rewrite Ei, nlen_cons; lia).
  destruct (qe_more e) eqn:Em.
  - destruct rest as [|r0 rr].
    + eexists _, _. split; [reflexivity|]. cbn [q_ready]. split; [rewrite E1, nlen_nil; lia | exact Ft].
    + eexists _, _. split; [reflexivity|]. cbn [q_ready]. split; [rewrite E1; cbn [esize qe_ids]; lia | constructor; [cbn; discriminate | exact Ft]].
  - destruct (Hone eq_refl) as (y & Ey). inversion Ey; subst.
    eexists _, _. split; [reflexivity|]. cbn [q_ready]. split; [rewrite E1, nlen_nil; lia | exact Ft].
Qed.

Lemma take_ones_esize n : forall q, WFQ q -> Forall (fun e => qe_ids e <> []) (q_ready q) ->
  N.of_nat n <= esize (q_ready q) -> take_ones n q = true.
Proof.
  induction n as [|k IH]; intros q W F Hle; cbn [take_ones]; [reflexivity|].
  assert (Hne : q_ready q <> []) by (intros E; rewrite E in Hle; cbn in Hle; lia).
  destruct (q_take_one_some q W Hne F) as (x & q' & E & Hs & F'). rewrite E.
  apply IH; [exact (tk_wf _ _ _ (q_take_one_spec _ _ _ W E)) | exact F' | lia].
Qed.

(** three workers, six single-node tasks (request 0), one two-node task (request 1) *)
Definition sch_ops1 : list op :=
  [OpConnect [4;0;0] 0; OpConnect [4;0;0] 0; OpConnect [4;0;0] 0;
   OpSubmit None [] (Some 6) (mkRq 0 [1;0;0]) 0%Z CUnl false None;
   OpSubmit None [] None (mkRq 2 [0;0;0]) 0%Z CUnl false None].
(** two tasks for worker 1, the two-node task on workers 2 and 3 (proactive filling then prefills two
    more tasks to worker 1) *)
Definition sch_sol1 : solution := mkSol [(0, 0, [(1, 2)])] [(1, 0, [[2; 3]])] [1;2;3] [].
(** ... then a fourth worker connects *)
Definition sch_ops2 : list op := sch_ops1 ++ [OpSched sch_sol1; OpConnect [4;0;0] 0].
(** three tasks for worker 4: two ready ones and one of the tasks prefilled to worker 1 (which is retracted) *)
Definition sch_sol2 : solution := mkSol [(0, 0, [(4, 3)])] [] [1;2;3;4] [(0, [(1,2);(1,3)])].
(** ... or a task of higher priority arrives (the prefilled tasks go back to the queue, under
    retraction) and two more workers connect *)
Definition sch_ops3 : list op :=
  sch_ops1 ++ [OpSched sch_sol1; OpSubmit None [] None (mkRq 0 [1;0;0]) 5%Z CUnl false None; OpConnect [4;0;0] 0; OpConnect [4;0;0] 0].
Definition sch_sol3 : solution := mkSol [(0, 0, [(4, 2); (5, 3)])] [] [1;2;3;4;5] [].

Definition sched_try (ops : list op) (sol : solution) : option (bool * res unit) :=
  match run (init_sys 0 2) ops with
  | Ok (s, _) => Some (sol_ok (s_core s) sol, match step s (OpSched sol) with Ok _ => Ok tt | Disabled => Disabled | Panic n => Panic n end)
  | _ => None
  end.

Lemma sch_ops_wf : Forall op_wf sch_ops1 /\ Forall op_wf sch_ops2 /\ Forall op_wf sch_ops3.
Proof. repeat split; repeat constructor. Qed.

Example sol_ok_satisfiable :
  run_fresh (init_sys 0 2) sch_ops1 = true /\ sched_try sch_ops1 sch_sol1 = Some (true, Ok tt) /\
  run_fresh (init_sys 0 2) sch_ops2 = true /\ sched_try sch_ops2 sch_sol2 = Some (true, Ok tt) /\
  run_fresh (init_sys 0 2) sch_ops3 = true /\ sched_try sch_ops3 sch_sol3 = Some (true, Ok tt).
Proof. repeat split; vm_compute; reflexivity. Qed.

(** the state the second round starts from: assigned, prefilled, ready and multi-node tasks *)
Example sch_state2 : exists s outs, run (init_sys 0 2) sch_ops2 = Ok (s, outs) /\
  map (fun t => (t_id t, t_state t)) (c_tasks (s_core s)) =
    [((1, 0), Assigned 1 0); ((1, 1), Assigned 1 0); ((1, 2), Prefilled 1); ((1, 3), Prefilled 1);
     ((1, 4), Waiting 0); ((1, 5), Waiting 0); ((2, 0), RunningMN [2; 3])].
Proof. eexists. eexists. split; vm_compute; reflexivity. Qed.

(** * Each conjunct is needed: reachable states (all hypotheses of [reachable_INV] hold), answers
    rejected by [sol_ok], and the panic site they reach *)
Example sol_ok_needed :
  (* more tasks than the queue holds: [take_tasks] unwraps an empty queue *)
  sched_try sch_ops1 (mkSol [(0, 0, [(1, 7)])] [] [1;2;3] []) = Some (false, Panic 135) /\
  (* a single-node task for a worker reserved for a multi-node task *)
  sched_try sch_ops2 (mkSol [(0, 0, [(2, 1)])] [] [1;2;3;4] [(0, [(1,2);(1,3)])]) = Some (false, Panic 102) /\
  (* a multi-node set naming a worker that holds tasks *)
  sched_try sch_ops2 (mkSol [] [(0, 0, [[1]])] [1;2;3;4] []) = Some (false, Panic 112) /\
  (* more worker sets than ready tasks *)
  sched_try sch_ops2 (mkSol [] [(1, 0, [[4]])] [1;2;3;4] []) = Some (false, Panic 182) /\
  (* an empty worker set *)
  sched_try sch_ops2 (mkSol [] [(0, 0, [[]])] [1;2;3;4] []) = Some (false, Panic 166) /\
  (* a multi-node placement for a queue holding tasks under retraction *)
  sched_try sch_ops3 (mkSol [] [(0, 0, [[4]; [5]])] [1;2;3;4;5] []) = Some (false, Panic 183).
Proof. repeat split; vm_compute; reflexivity. Qed.
