(** C01, "start before finish" - the theorems for every history of the system model.

    [finished_after_started]: in the output of ANY history [run (init_sys r m) ops = Ok (s, outs)]
    every [EvFinished t] is preceded by an [EvStarted t ..] of the same task with no terminal event
    of [t] in between ([FAS], StartFinBase.v); no hypothesis on the history is needed.
    [finished_after_started_strong] adds (with [terminal_event_once]) that no terminal event names
    [t] anywhere else in the stream.  [running_has_start] is the state half of the invariant.

    What is NOT claimed, because the model (like the implementation) emits no per-task event for
    it: that the task did not go back to waiting between the start and the finish.  A worker loss
    resets the Running tasks of the lost worker silently ([set_waiting_state]); the only trace is
    the per-worker [EvWLost w].

    Failures: [EvFailed t k] does NOT presuppose a start, for no kind [k] the server checks - see
    the rule and the witnesses at the end of this file.

    The file begins with the relation [SF] (StartFinBase.v) through the two places where a start or
    a worker loss is emitted - the processing of a worker's updates and the removal of a worker -
    and through one [step]; everything else is a stretch [WK] (StartFin2Job.v). *)
From HQ Require Import Base.Prelude Cluster.Types Cluster.Core Cluster.Reactor Cluster.Worker Cluster.Server Cluster.Sys Cluster.Monitors Cluster.ProofsJob Cluster.ProofsMore Cluster.ProofsTerminal Cluster.ProofsStep Cluster.ProofsFinal Cluster.BijBase Cluster.BijHq Cluster.ProofsOnce Cluster.StartFinBase Cluster.RejHyp Cluster.ReactSplit Cluster.StartFin2Base Cluster.StartFin2Job.
From Coq Require Import ZArith Lia.
Local Open Scope N_scope.

Lemma WQ_SF s s' : WQ s s' -> SF s s'.
Proof. intros [W _]. apply WK_SF. exact W. Qed.

Lemma SF_started s t i ws rv s' : process_task_started s t i ws rv = Ok s' -> SF s s'.
Proof.
  intros H. destruct (process_task_started_jr _ _ _ _ _ _ H) as (E & _ & Hj).
  apply (SF_emit1 _ _ _ E); [intros x Ex; discriminate|].
  intros x Hx. destruct (Hj x Hx) as [->|H1]; [right; eauto | left; split; [exact H1 | intros []]].
Qed.

Lemma SF_task_running s w id rv s' b : task_running s w id rv = Ok (s', b) -> SF s s'.
Proof.
  intros H. apply task_running_split in H. destruct (find_task _ id) as [t|]; [|subst; apply SF_refl].
  destruct H as (s1 & ws & Q1 & S1 & H2 & _).
  eapply SF_trans; [apply WK_SF, WK_core; [exact Q1 | exact S1] | eapply SF_started; exact H2].
Qed.

Lemma SF_apply_one s w u s' n : apply_one s w u = Ok (s', n) -> SF s s'.
Proof.
  destruct u; cbn [apply_one]; intros Hu.
  - apply WQ_SF. eapply WQ_task_finished; exact Hu.
  - apply bind_ok in Hu. destruct Hu as (sx & Hf & Hu). inversion Hu; subst. apply WQ_SF. eapply WQ_task_failed; exact Hf.
  - eapply SF_task_running; exact Hu.
  - eapply SF_task_running; exact Hu.
  - apply WK_SF, WK_core; [exact (task_reject_same _ _ _ _ _ _ Hu) | eapply task_reject_snd; exact Hu].
  - apply bind_ok in Hu. destruct Hu as (sx & Hf & Hu). inversion Hu; subst.
    apply WK_SF, WK_core; [exact (request_enabled_same _ _ _ _ _ Hf)|].
    unfold request_enabled in Hf. inv_binds Hf. inversion Hf; reflexivity.
Qed.

Lemma SF_on_task_update s w us s' : on_task_update s w us = Ok s' -> SF s s'.
Proof. apply (on_task_update_rel SF SF_refl SF_trans SF_apply_one). intros x. apply WK_SF, WK_core; reflexivity. Qed.

Lemma SF_worker_lost s w running reason s' : process_worker_lost s w running reason = Ok s' -> SF s s'.
Proof.
  intros H. unfold process_worker_lost in H. apply bind_ok in H. destruct H as (s1 & H1 & H). inversion H; subst.
  eapply SF_trans; [apply WQ_SF; eapply WQ_set_waiting_all; exact H1|].
  apply (SF_emit1 _ _ (OEv (EvWLost w reason))); [reflexivity | intros x Ex; discriminate|].
  intros x Hx. left. split; [exact Hx | intros []].
Qed.

Lemma SF_on_remove_worker s w reason a p t s' : on_remove_worker s w reason a p t = Ok s' -> SF s s'.
Proof.
  intros Hc. destruct (on_remove_worker_split _ _ _ _ _ _ _ Hc) as (wk & c2 & running & rt & s3 & s4 & s6 & s7 & _ & _ & _ & _ & Q4 & S4 & H6 & H7 & ->).
  eapply SF_trans; [apply WK_SF, (WK_core s (broadcast s4 (DLostWorker w))); [exact Q4 | exact S4]|].
  eapply SF_trans; [eapply SF_worker_lost; exact H6|].
  eapply SF_trans; [apply WQ_SF; eapply WQ_lost_fail_running; exact H7 | apply WK_SF, WK_core; reflexivity].
Qed.

Theorem SF_step s o s' outs : step s o = Ok (s', outs) -> SF (s, []) (s', outs).
Proof.
  intros H. destruct o; try (apply WQ_SF; refine (step_WQ _ _ _ _ _ H); exact I).
  - apply step_lost_split in H. eapply SF_on_remove_worker; exact H.
  - destruct (step_up_split _ _ _ _ H) as (p & m & rest & _ & _ & Hm).
    eapply (SF_trans _ (with_procs s (set_proc (s_procs s) (wp_up p rest)), [OUp w m])); [apply WK_SF; eapply (WK_ext _ _ [OUp w m]); [reflexivity | reflexivity | reflexivity | apply nojr_same; reflexivity]|].
    destruct m; [eapply SF_on_task_update; exact Hm | apply WQ_SF; eapply WQ_retract_response; exact Hm].
Qed.

Theorem run_IPs ops : forall s pre s' outs,
  IPs (s, []) pre -> run s ops = Ok (s', outs) -> IPs (s', []) (pre ++ outs).
Proof.
  induction ops as [|o r IH]; cbn [run]; intros s pre s' outs I H.
  - inversion H; subst. rewrite app_nil_r. exact I.
  - apply bind_ok in H. destruct H as ([s1 o1] & H1 & H). apply bind_ok in H. destruct H as ([s2 o2] & H2 & H). inversion H; subst.
    rewrite app_assoc. eapply IH; [|exact H2].
    pose proof (SF_step _ _ _ _ H1 pre I) as I1. unfold IPs in *. cbn [snd] in *. rewrite app_nil_r. exact I1.
Qed.

Lemma IPs_init reserve maxfill : IPs (init_sys reserve maxfill, []) [].
Proof. split; [apply FAS_nil | intros t Ht; discriminate]. Qed.

(** C01, start before finish. *)
Theorem finished_after_started ops reserve maxfill s outs :
  run (init_sys reserve maxfill) ops = Ok (s, outs) -> FAS outs.
Proof.
  intros H. destruct (run_IPs _ _ _ _ _ (IPs_init reserve maxfill) H) as [HF _].
  cbn [snd app] in HF. rewrite app_nil_r in HF. exact HF.
Qed.

Corollary finished_after_started_unfolded ops reserve maxfill s outs pre t post :
  run (init_sys reserve maxfill) ops = Ok (s, outs) ->
  outs = pre ++ [OEv (EvFinished t)] ++ post ->
  exists a i ws rv b, pre = a ++ [OEv (EvStarted t i ws rv)] ++ b /\ ~ In t (terminal_ids b).
Proof. intros H E. exact (finished_after_started _ _ _ _ _ H pre t post E). Qed.

Corollary finished_after_started_check ops reserve maxfill s outs :
  run (init_sys reserve maxfill) ops = Ok (s, outs) -> fas_check outs = true.
Proof. intros H. apply fas_check_spec. eapply finished_after_started; exact H. Qed.

(** The state half: a task the job layer shows Running at the end of the history has a start in
    the stream after which no terminal event names it. *)
Theorem running_has_start ops reserve maxfill s outs t :
  run (init_sys reserve maxfill) ops = Ok (s, outs) ->
  task_state (s, []) t = Some JR -> live outs t.
Proof.
  intros H Ht. destruct (run_IPs _ _ _ _ _ (IPs_init reserve maxfill) H) as [_ HL].
  specialize (HL t Ht). cbn [snd app] in HL. rewrite app_nil_r in HL. exact HL.
Qed.

(** With "reported once": the finish is the only terminal event of the task in the whole stream. *)
Lemma count_occ_zero_not_in (l : list tid) t : count_occ tid_dec l t = 0%nat -> ~ In t l.
Proof. intros E Hin. apply (count_occ_In tid_dec) in Hin. lia. Qed.

Theorem finished_after_started_strong ops reserve maxfill s outs pre t post :
  run (init_sys reserve maxfill) ops = Ok (s, outs) ->
  outs = pre ++ OEv (EvFinished t) :: post ->
  (exists a i ws rv b, pre = a ++ OEv (EvStarted t i ws rv) :: b) /\
  ~ In t (terminal_ids pre) /\ ~ In t (terminal_ids post).
Proof.
  intros H E. destruct (finished_after_started _ _ _ _ _ H pre t post E) as (a & i & ws & rv & b & Ea & _).
  split; [exists a, i, ws, rv, b; exact Ea|].
  destruct (terminal_event_once _ _ _ _ _ t H) as [Hle _].
  rewrite E in Hle. change (pre ++ OEv (EvFinished t) :: post) with (pre ++ [OEv (EvFinished t)] ++ post) in Hle.
  rewrite !terminal_ids_app, !count_occ_app in Hle.
  assert (E1 : count_occ tid_dec (terminal_ids [OEv (EvFinished t)]) t = 1%nat).
  { unfold terminal_ids. cbn [flat_map tids_of app count_occ]. destruct (tid_dec t t); [reflexivity | contradiction]. }
  split; apply count_occ_zero_not_in; lia.
Qed.

(** [once_ops] (ProofsOnce.v): a task is submitted, placed, started and finishes. *)
Example fas_example : exists s outs, run (init_sys 0 2) once_ops = Ok (s, outs)
  /\ In (OEv (EvFinished (1, 0))) outs /\ fas_check outs = true.
Proof. do 2 eexists. split; [vm_compute; reflexivity|]. split; [vm_compute; tauto | vm_compute; reflexivity]. Qed.

(** The check is not trivially true: a finish without start, a finish after an intervening
    terminal event, and a second finish are all rejected. *)
Example fas_check_rejects :
  fas_check [OEv (EvFinished (1, 0))] = false
  /\ fas_check [OEv (EvStarted (1, 0) 0 [1] 0); OEv (EvAborted [(1, 0)]); OEv (EvFinished (1, 0))] = false
  /\ fas_check [OEv (EvStarted (1, 0) 0 [1] 0); OEv (EvFinished (1, 0)); OEv (EvFinished (1, 0))] = false
  /\ fas_check [OEv (EvStarted (1, 0) 0 [1] 0); OEv (EvWLost 1 1); OEv (EvStarted (1, 0) 1 [2] 0); OEv (EvFinished (1, 0))] = true.
Proof. vm_compute. repeat split; reflexivity. Qed.

(** * Failures

    The rule of the model (and of the code it reproduces): [EvFailed t k] is emitted only by
    [process_task_failed], which accepts a task the job layer shows Waiting OR Running
    ([ProofsMore.failed_only_from_active]) and does not look at the kind [k].  The kinds come from
    - a worker's [UFailed t k] message ([task_failed s (Some w) t k]; the core accepts it for a task
      Assigned / Prefilled / Retracting / Running / RunningMN on that worker): the worker model sends
      [FLaunch] for a task whose launch failed - it never reported the task running -, and
      [FTask] / [FTimeLimit] when a launched future ends;
    - the server itself after a worker loss ([lost_fail_running] -> [task_failed s None t k] with
      k = [FNeverRestart] / [FCrashLimit]): the task was running on the lost worker and has just been
      put back to Waiting, in the core ([is_waiting], else Panic 168) and in the job layer.
    So a failure does not presuppose a start; the three witnesses below are histories of the
    system model. *)

(** A reported failure is accepted from Waiting as well as from Running. *)
Theorem failed_from_waiting_or_running s t aborted k s' ids :
  process_task_failed s t aborted k = Ok (s', ids) ->
  exists s1, abort_tasks s (fst t) aborted = Ok s1 /\ (task_state s1 t = Some JW \/ task_state s1 t = Some JR).
Proof. apply failed_only_from_active. Qed.

(** The server-generated failures (crash limit / never-restart after a worker loss) are for tasks
    the core shows Waiting. *)
Theorem server_failure_from_waiting s id k s' t :
  task_failed s None id k = Ok s' -> find_task (c_tasks (core_of s)) id = Some t -> is_waiting t = true.
Proof.
  unfold task_failed. intros H Hf. rewrite Hf in H. apply bind_ok in H. destruct H as (rq & _ & H).
  apply bind_ok in H. destruct H as (c1 & H1 & _). destruct (is_waiting t); [reflexivity | discriminate].
Qed.

Definition evs_of (outs : list out) : list out := filter (fun x => match x with OEv _ => true | _ => false end) outs.

(** Launch failure: the task fails without ever having been started. *)
Definition fail_launch_ops : list op :=
  [OpConnect [20000; 0; 0] 0;
   OpSubmit None [] None once_rq 0%Z (CMax 3) false None;
   OpSched (mkSol [(0, 0, [(1, 1)])] [] [1] []);
   OpFailNext 1 (1, 0);
   OpDDown 1 []; OpDDown 1 []; OpDUp 1].
Example failed_needs_start_refuted_launch : exists s outs, run (init_sys 0 2) fail_launch_ops = Ok (s, outs)
  /\ evs_of outs = [OEv (EvWConn 1); OEv (EvSubmit 1 true 1); OEv (EvFailed (1, 0) FLaunch); OEv (EvCompleted 1)].
Proof. do 2 eexists. split; vm_compute; reflexivity. Qed.

(** Crash limit: the task was started, its worker is lost (the task goes back to waiting, silently)
    and the crash limit fails it - between its start and its failure the only trace is [EvWLost]. *)
Definition fail_crash_ops : list op :=
  [OpConnect [20000; 0; 0] 0;
   OpSubmit None [] None once_rq 0%Z (CMax 1) false None;
   OpSched (mkSol [(0, 0, [(1, 1)])] [] [1] []);
   OpDDown 1 []; OpDDown 1 []; OpDUp 1; OpLost 1 1 [(1, 0)] [] [(1, 0)]].
Example failed_after_back_to_waiting : exists s outs, run (init_sys 0 2) fail_crash_ops = Ok (s, outs)
  /\ evs_of outs = [OEv (EvWConn 1); OEv (EvSubmit 1 true 1); OEv (EvStarted (1, 0) 0 [1] 0); OEv (EvWLost 1 1);
                    OEv (EvFailed (1, 0) FCrashLimit); OEv (EvCompleted 1)].
Proof. do 2 eexists. split; vm_compute; reflexivity. Qed.

(** Crash limit of a multi-node task whose root worker is lost before it reported the task
    running: a crash-limit failure with no start at all. *)
Definition fail_crash_mn_ops : list op :=
  [OpConnect [20000; 0; 0] 0; OpConnect [20000; 0; 0] 0;
   OpSubmit None [] None (mkRq 2 [0; 0; 0]) 0%Z (CMax 1) false None;
   OpSched (mkSol [] [(0, 0, [[1; 2]])] [1; 2] []);
   OpLost 1 1 [] [] [(1, 0)]].
Example failed_needs_start_refuted_crash_mn : exists s outs, run (init_sys 0 2) fail_crash_mn_ops = Ok (s, outs)
  /\ evs_of outs = [OEv (EvWConn 1); OEv (EvWConn 2); OEv (EvSubmit 1 true 1); OEv (EvWLost 1 1);
                    OEv (EvFailed (1, 0) FCrashLimit); OEv (EvCompleted 1)].
Proof. do 2 eexists. split; vm_compute; reflexivity. Qed.

Print Assumptions finished_after_started.
Print Assumptions finished_after_started_strong.
Print Assumptions running_has_start.
Print Assumptions fas_check_spec.
