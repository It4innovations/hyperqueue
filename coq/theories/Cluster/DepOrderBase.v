(** C03 across a restart, part 1: vocabulary.

    The journal is the stream of events the server emits.  A restart from a PREFIX of the journal
    must never find a task whose dependency is dead (failed / cancelled / aborted) while the task
    itself has no terminal record - it would re-run a task that must never run.  So the ORDER of
    the terminal events matters: when the event that kills [t] is written, every dependent of [t]
    must already have its own terminal record (in an earlier event, or in the same event).

    [jc Dep T outs] is that statement for one stretch [outs] of the output stream, a dependency
    relation [Dep x t] ("x depends on t") and the set [T] of tasks that have a terminal record
    before the stretch starts.  It is compositional ([jc_app]); [jc_decomp] is the
    decomposition form.  The second half of the file describes the events the job-layer
    primitives append ([blk]). *)
From HQ Require Import Base.Prelude Cluster.Types Cluster.Core Cluster.Reactor Cluster.BijCore Cluster.ProofsOnce Cluster.StartFinBase Cluster.InvDRem.
From HQ Require Import Cluster.ModelFacts.
Local Open Scope N_scope.

Arguments N.add : simpl never.
Arguments N.sub : simpl never.

Definition kill_ids (o : out) : list tid :=
  match o with
  | OEv (EvFailed t _) => [t]
  | OEv (EvCanceled ts) => ts
  | OEv (EvAborted ts) => ts
  | _ => []
  end.

Lemma kill_ids_sub o t : In t (kill_ids o) -> In t (tids_of o).
Proof. destruct o as [e| | | | | |]; try (intros []). destruct e; cbn; auto. Qed.

Definition deprel := tid -> tid -> Prop.

Fixpoint jc (Dep : deprel) (T : tid -> Prop) (outs : list out) : Prop :=
  match outs with
  | [] => True
  | o :: r => (forall t x, In t (kill_ids o) -> Dep x t -> In x (tids_of o) \/ T x)
              /\ jc Dep (fun x => In x (tids_of o) \/ T x) r
  end.

Lemma jc_weaken (Dep Dep' : deprel) outs : forall (T T' : tid -> Prop),
  (forall x t, In t (terminal_ids outs) -> Dep' x t -> Dep x t \/ T' x) -> (forall x, T x -> T' x) ->
  jc Dep T outs -> jc Dep' T' outs.
Proof.
  induction outs as [|o r IH]; cbn [jc]; intros T T' HD HT H; [exact I|].
  destruct H as [H1 H2]. rewrite tids_cons in HD. split.
  - intros t x Ht Hx.
    destruct (HD x t (in_or_app _ _ _ (or_introl (kill_ids_sub _ _ Ht))) Hx) as [Hd|Hd]; [|right; exact Hd].
    destruct (H1 _ _ Ht Hd) as [A|A]; [left; exact A | right; apply HT; exact A].
  - eapply IH; [| |exact H2].
    + intros x t Ht Hx. destruct (HD x t (in_or_app _ _ _ (or_intror Ht)) Hx) as [Hd|Hd]; [left; exact Hd | right; right; exact Hd].
    + intros x [A|A]; [left; exact A | right; apply HT; exact A].
Qed.

Lemma jc_ext Dep outs (T T' : tid -> Prop) : (forall x, T x -> T' x) -> jc Dep T outs -> jc Dep T' outs.
Proof. intros HT. apply jc_weaken; [intros x t _ Hd; left; exact Hd | exact HT]. Qed.

Lemma jc_app Dep a : forall T b,
  jc Dep T (a ++ b) <-> jc Dep T a /\ jc Dep (fun x => In x (terminal_ids a) \/ T x) b.
Proof.
  induction a as [|o r IH]; intros T b.
  - cbn [app jc]. split.
    + intros H. split; [exact I|]. eapply jc_ext; [|exact H]. intros x Hx; right; exact Hx.
    + intros [_ H]. eapply jc_ext; [|exact H]. intros x [[]|Hx]; exact Hx.
  - cbn [app jc]. rewrite IH. rewrite tids_cons. split.
    + intros [H1 [H2 H3]]. split; [split; assumption|]. eapply jc_ext; [|exact H3].
      intros x [A|[A|A]]; [left; apply in_app_iff; right; exact A | left; apply in_app_iff; left; exact A | right; exact A].
    + intros [[H1 H2] H3]. split; [exact H1|]. split; [exact H2|]. eapply jc_ext; [|exact H3].
      intros x [A|A]; [apply in_app_iff in A; destruct A as [A|A]; [right; left; exact A | left; exact A] | right; right; exact A].
Qed.

Lemma terminal_ids_nil_cons o r : terminal_ids (o :: r) = [] -> tids_of o = [] /\ terminal_ids r = [].
Proof. rewrite tids_cons. intros H. apply app_eq_nil in H. exact H. Qed.

Lemma jc_quiet Dep outs : forall T, terminal_ids outs = [] -> jc Dep T outs.
Proof.
  induction outs as [|o r IH]; intros T H; [exact I|].
  destruct (terminal_ids_nil_cons _ _ H) as [H1 H2]. cbn [jc]. split; [|apply IH; exact H2].
  intros t x Ht. apply kill_ids_sub in Ht. rewrite H1 in Ht. destruct Ht.
Qed.

Lemma jc_decomp Dep outs : forall T,
  jc Dep T outs <->
  (forall pre o post t x, outs = pre ++ o :: post -> In t (kill_ids o) -> Dep x t ->
     In x (terminal_ids (pre ++ [o])) \/ T x).
Proof.
  intros T. split.
  - intros J pre o post t x -> Ht Hx. apply jc_app in J. destruct J as [_ [J _]].
    rewrite terminal_ids_app, tids_cons, in_app_iff, in_app_iff.
    destruct (J t x Ht Hx) as [A|[A|A]]; [left; right; left; exact A | left; left; exact A | right; exact A].
  - revert T. induction outs as [|o r IH]; intros T H; [exact I|]. split.
    + intros t x Ht Hx. destruct (H [] o r t x eq_refl Ht Hx) as [A|A]; [left | right; exact A].
      cbn [app] in A. rewrite tids_cons in A. apply in_app_iff in A. destruct A as [A|[]]. exact A.
    + apply IH. intros pre o' post t x -> Ht Hx.
      destruct (H (o :: pre) o' post t x eq_refl Ht Hx) as [A|A]; [|right; right; exact A].
      cbn [app] in A. rewrite tids_cons in A. apply in_app_iff in A. destruct A as [A|A]; [right; left; exact A | left; exact A].
Qed.

(** What a job-layer primitive appends.
    [blk kills terms ext]: [ext] names exactly [terms] in terminal events, kills at most [kills],
    and whenever it kills, everything in [terms] is recorded at once. *)
Definition blk (kills terms : list tid) (ext : list out) : Prop :=
  terminal_ids ext = terms /\
  forall (Dep : deprel) (T : tid -> Prop), (forall t x, In t kills -> Dep x t -> In x terms \/ T x) -> jc Dep T ext.

Lemma blk_quiet ext : terminal_ids ext = [] -> blk [] [] ext.
Proof. intros H. split; [exact H|]. intros Dep T _. apply jc_quiet. exact H. Qed.

Lemma blk_nil : blk [] [] [].
Proof. apply blk_quiet. reflexivity. Qed.

Lemma blk_one o q : terminal_ids q = [] -> blk (kill_ids o) (tids_of o) (o :: q).
Proof.
  intros Hq. split; [rewrite tids_cons, Hq, app_nil_r; reflexivity|].
  intros Dep T H. cbn [jc]. split; [exact H | apply jc_quiet; exact Hq].
Qed.

Lemma blk_pre_quiet p kills terms ext : terminal_ids p = [] -> blk kills terms ext -> blk kills terms (p ++ ext).
Proof.
  intros Hp [E H]. split; [rewrite terminal_ids_app, Hp; exact E|].
  intros Dep T HD. apply jc_app. split; [apply jc_quiet; exact Hp|].
  eapply jc_ext; [|apply (H Dep T HD)]. intros x Hx; right; exact Hx.
Qed.

Lemma blk_weaken_kills kills kills' terms ext : incl kills' kills -> blk kills' terms ext -> blk kills terms ext.
Proof. intros Hi [E H]. split; [exact E|]. intros Dep T HD. apply H. intros t x Ht. apply HD. apply Hi. exact Ht. Qed.

Lemma jc_blk2 (Dep : deprel) T k1 t1 e1 k2 t2 e2 :
  blk k1 t1 e1 -> blk k2 t2 e2 ->
  (forall t x, In t k1 -> Dep x t -> In x t1 \/ T x) ->
  (forall t x, In t k2 -> Dep x t -> In x t2 \/ In x t1 \/ T x) ->
  jc Dep T (e1 ++ e2).
Proof.
  intros [E1 B1] [E2 B2] H1 H2. apply jc_app. split; [apply B1; exact H1|].
  apply B2. rewrite E1. exact H2.
Qed.

Definition cdep (c : core) : deprel :=
  fun x t => exists tx, find_task (c_tasks c) x = Some tx /\ In t (t_deps tx).

Lemma collect_dom fuel : forall ts frontier acc r,
  WFc ts -> (forall x, In x acc -> find_task ts x <> None) ->
  collect_consumers fuel ts frontier acc = Ok r -> forall x, In x r -> find_task ts x <> None.
Proof.
  induction fuel as [|k IH]; intros ts frontier acc r W Hdom H.
  - destruct frontier; cbn [collect_consumers] in H; inversion H; subst; exact Hdom.
  - destruct frontier as [|id rest]; cbn [collect_consumers] in H; [inversion H; subst; exact Hdom|].
    apply bind_ok in H. destruct H as (t & Ht & H). apply get_task_find in Ht.
    destruct (W _ _ Ht) as [_ Hcd].
    eapply IH; [exact W | | exact H].
    intros x Hx. apply tid_insert_all_iff in Hx. destruct Hx as [Hx|Hx]; [|apply Hdom; exact Hx].
    apply filter_In in Hx. apply Hcd. apply Hx.
Qed.

Lemma recursive_consumers_dom ts t csm :
  WFc ts -> (forall y, In y (t_consumers t) -> find_task ts y <> None) ->
  recursive_consumers ts t = Ok csm -> forall x, In x csm -> find_task ts x <> None.
Proof.
  intros W Hcd H. unfold recursive_consumers in H. eapply collect_dom; [exact W | | exact H].
  intros x Hx. apply tid_insert_all_iff in Hx. destruct Hx as [Hx|[]]. apply Hcd. exact Hx.
Qed.

Lemma snd_emit s o : snd (emit s o) = snd s ++ [o].
Proof. reflexivity. Qed.

Lemma quiet_nil (s : st) : exists q, snd s = snd s ++ q /\ terminal_ids q = [].
Proof. exists []. rewrite app_nil_r. split; reflexivity. Qed.

Lemma ext_nil (s : st) : exists ext, snd s = snd s ++ ext /\ blk [] [] ext.
Proof. exists []. rewrite app_nil_r. split; [reflexivity | exact blk_nil]. Qed.

Lemma check_termination_ext s jid s' :
  check_termination s jid = Ok s' -> exists q, snd s' = snd s ++ q /\ terminal_ids q = [].
Proof.
  unfold check_termination. intros H. apply bind_ok in H. destruct H as (j & _ & H). apply bind_ok in H. destruct H as (na & _ & H).
  destruct na; [|inversion H; subst; apply quiet_nil].
  destruct (j_open j); inversion H; subst; [apply quiet_nil|].
  exists [OEv (EvCompleted jid)]. split; reflexivity.
Qed.

(** One event, then the termination check of its job: the shape every terminal record is written in. *)
Lemma check_termination_blk s o jid s' :
  check_termination (emit s o) jid = Ok s' -> exists ext, snd s' = snd s ++ ext /\ blk (kill_ids o) (tids_of o) ext.
Proof.
  intros H. destruct (check_termination_ext _ _ _ H) as (q & Eq & Hq). exists (o :: q).
  split; [rewrite Eq; cbn [snd emit]; rewrite <- app_assoc; reflexivity | exact (blk_one o q Hq)].
Qed.

Lemma abort_tasks_ext s jid ids s' :
  abort_tasks s jid ids = Ok s' -> exists ext, snd s' = snd s ++ ext /\ blk ids ids ext.
Proof.
  unfold abort_tasks. destruct ids as [|i0 ir] eqn:Eids.
  - intros H. inversion H; subst. apply ext_nil.
  - rewrite <- Eids. intros H. apply bind_ok in H. destruct H as (j & _ & H). apply bind_ok in H. destruct H as (j1 & _ & H).
    exact (check_termination_blk _ _ _ _ H).
Qed.

Lemma set_cancel_state_ext s jid ids s' :
  set_cancel_state s jid ids = Ok s' -> exists ext, snd s' = snd s ++ ext /\ blk ids ids ext.
Proof.
  unfold set_cancel_state. destruct ids as [|i0 ir] eqn:Eids.
  - intros H. inversion H; subst. apply ext_nil.
  - rewrite <- Eids. intros H. apply bind_ok in H. destruct H as (j & _ & H). apply bind_ok in H. destruct H as (j1 & _ & H).
    destruct (check_termination_blk _ _ _ _ H) as (ext & E & B). cbn [snd emit hq_set_job] in E.
    exists ([OEv (EvJobCancel jid)] ++ ext). split; [rewrite E, <- app_assoc; reflexivity|].
    apply blk_pre_quiet; [reflexivity | exact B].
Qed.

Lemma process_task_finished_ext s t s' :
  process_task_finished s t = Ok s' -> exists ext, snd s' = snd s ++ ext /\ blk [] [t] ext.
Proof.
  unfold process_task_finished. intros H. apply bind_ok in H. destruct H as (j & _ & H).
  destruct (jt_find (j_tasks j) (snd t)) as [v|]; [|discriminate]. destruct v; try discriminate.
  apply bind_ok in H. destruct H as (nr & _ & H). exact (check_termination_blk _ _ _ _ H).
Qed.

Lemma process_task_started_ext s t i ws rv s' :
  process_task_started s t i ws rv = Ok s' -> exists q, snd s' = snd s ++ q /\ terminal_ids q = [].
Proof.
  unfold process_task_started. intros H. apply bind_ok in H. destruct H as (j & _ & H).
  destruct (jt_find _ _); [|discriminate]. inversion H; subst. exists [OEv (EvStarted t i ws rv)]. split; reflexivity.
Qed.

Lemma process_worker_lost_ext s w running reason s' :
  process_worker_lost s w running reason = Ok s' -> exists q, snd s' = snd s ++ q /\ terminal_ids q = [].
Proof.
  unfold process_worker_lost. intros H. apply bind_ok in H. destruct H as (s1 & H1 & H). inversion H; subst.
  exists [OEv (EvWLost w reason)]. cbn [snd emit]. rewrite (set_waiting_all_snd _ _ _ H1). split; reflexivity.
Qed.

(** [process_task_failed]: the dependents' abort, THEN the failure, then the rest of the job when
    the failure limit is exceeded. *)
Lemma process_task_failed_ext s t aborted k s' ids :
  process_task_failed s t aborted k = Ok (s', ids) ->
  exists e1 e2 e3, snd s' = snd s ++ e1 ++ e2 ++ e3 /\ blk aborted aborted e1 /\ blk [t] [t] e2 /\ blk ids ids e3.
Proof.
  unfold process_task_failed. intros H.
  apply bind_ok in H. destruct H as (s1 & H1 & H).
  destruct (abort_tasks_ext _ _ _ _ H1) as (e1 & E1 & B1).
  apply bind_ok in H. destruct H as (j & _ & H). apply bind_ok in H. destruct H as (j1 & _ & H).
  apply bind_ok in H. destruct H as (s2 & H2 & H).
  destruct (check_termination_blk _ _ _ _ H2) as (e2 & E2 & B2). cbn [snd hq_set_job] in E2.
  apply bind_ok in H. destruct H as (j2 & _ & H).
  assert (H3 : exists e3, snd s' = snd s2 ++ e3 /\ blk ids ids e3).
  { destruct (j_maxfails j2) as [mf|]; [destruct (N.ltb mf (j_nfail j2))|].
    - apply bind_ok in H. destruct H as (s3 & H3 & H). inversion H; subst. exact (abort_tasks_ext _ _ _ _ H3).
    - inversion H; subst. apply ext_nil.
    - inversion H; subst. apply ext_nil. }
  destruct H3 as (e3 & E3 & B3). exists e1, e2, e3.
  split; [rewrite E3, E2, E1, <- !app_assoc; reflexivity | split; [exact B1 | split; [exact B2 | exact B3]]].
Qed.
