(** Protocol invariant, part 11: a message of a worker reaches the server ([OpDUp]): [PROTO] is
    preserved, and the executable hypothesis [RejHyp.step_fresh] follows from [PROTO]. *)
From HQ Require Import Base.Prelude Cluster.Types Cluster.Core Cluster.Reactor Cluster.Worker Cluster.Server Cluster.Sys Cluster.ProofsJob Cluster.ProofsMore Cluster.ProofsTerminal Cluster.ProofsStep Cluster.BijBase Cluster.BijCore Cluster.BijHq Cluster.BijSt Cluster.BijReact Cluster.RejHyp Cluster.NoPanicU0 Cluster.NoPanicU1 Cluster.NoPanicU2 Cluster.NoPanicU6 Cluster.NoPanicU7 Cluster.NoPanicU8 Cluster.NoPanicU9 Cluster.NoPanicU10.
From HQ Require Import Cluster.ModelFacts.
From Coq Require Import ZArith Lia Sorting.Sorted.
Local Open Scope N_scope.

(** What [PROTO] needs from the other invariants (all part of [INV], see NoPanicU12.v). *)
Definition UH (s : sys) : Prop :=
  tsorted (s_core s) /\
  forall x t, find_task (c_tasks (s_core s)) x = Some t -> seen (s_hq s) x = true /\ jactive (jv (s_hq s) x).

Lemma apply_one_SP s w u r s' b : SP x0 s (pum_us w (u :: r)) [] -> apply_one s w u = Ok (s', b) -> SP x0 s' (pum_us w r) [].
Proof.
  intros HS H. destruct u; cbn [apply_one] in H.
  - eapply task_finished_SP; eassumption.
  - apply bind_ok in H. destruct H as (s1 & H1 & H). inversion H; subst. eapply task_failed_SP; eassumption.
  - eapply task_running_SP; [exact HS | left; reflexivity | exact H].
  - eapply task_running_SP; [exact HS | right; reflexivity | exact H].
  - eapply task_reject_SP; eassumption.
  - apply bind_ok in H. destruct H as (s1 & H1 & H). inversion H; subst. eapply request_enabled_SP; eassumption.
Qed.

Lemma apply_updates_SP us : forall s w need s' need',
  SP x0 s (pum_us w us) [] -> apply_updates s w us need = Ok (s', need') -> SP x0 s' (pum_us w []) [].
Proof.
  induction us as [|u r IH]; intros s w need s' need' HS H; [cbn in H; inversion H; subst; exact HS|].
  rewrite apply_updates_cons in H. apply bind_ok in H. destruct H as ([s1 n1] & H1 & H).
  eapply IH; [|exact H]. eapply apply_one_SP; eassumption.
Qed.

Lemma on_task_update_SP s w us s' : SP x0 s (pum_us w us) [] -> on_task_update s w us = Ok s' -> SP x0 s' no_pum [].
Proof.
  intros HS H. unfold on_task_update in H. apply bind_ok in H. destruct H as ([s1 need] & H1 & H).
  pose proof (apply_updates_SP _ _ _ _ _ _ HS H1) as S1.
  assert (S2 : SP x0 s1 no_pum []).
  { apply (SP_pum_clear x0 s1 (pum_us w [])); [exact S1|]. intros w' y. unfold pum_us. destruct (N.eqb w' w); reflexivity. }
  destruct (need && _); inversion H; subst; [apply SP_ask|]; exact S2.
Qed.

Definition pum_one (w0 : wid) (m : umsg) : wid -> list umsg := fun w => if N.eqb w w0 then [m] else [].

Lemma SP_pop s w p m rest o :
  PROTO s -> UH s -> find_proc (s_procs s) w = Some p -> p_up p = m :: rest ->
  SP x0 (with_procs s (set_proc (s_procs s) (wp_up p rest)), o) (pum_one w m) [].
Proof.
  intros HP [Hcs Hpa] Hp Eu. destruct (find_proc_some _ _ _ Hp) as [_ Hid].
  pose proof (SP_init s o HP Hcs Hpa) as [H9 Hcs' Hact H1 Hd Ht H3 H4 Hpres Hpum H5 H6 H7 R1 R2].
  cbn [fst core_of hq_of s_core s_hq s_procs] in *.
  assert (Hfp : forall w' q, find_proc (set_proc (s_procs s) (wp_up p rest)) w' = Some q ->
            exists q0, find_proc (s_procs s) w' = Some q0 /\ p_down q = p_down q0 /\ p_rqs q = p_rqs q0 /\ p_running q = p_running q0
                       /\ p_backlog q = p_backlog q0 /\ p_futures q = p_futures q0 /\ p_alloc q = p_alloc q0
                       /\ pum_one w m w' ++ p_up q = p_up q0).
  { intros w' q Hf. rewrite find_set_proc in Hf. cbn [wp_up wp_upd p_id] in Hf. rewrite Hid in Hf. unfold pum_one.
    destruct (N.eqb w' w) eqn:E.
    - apply N.eqb_eq in E. subst w'. inversion Hf; subst q. exists p. cbn. repeat split; try assumption. symmetry. exact Eu.
    - exists q. repeat split. exact Hf. }
  constructor; cbn [fst snd core_of hq_of with_procs s_core s_hq s_procs]; try assumption.
  - apply set_proc_sorted. exact H9.
  - intros w' q x t Hq Hx HX. destruct (Hfp _ _ Hq) as (q0 & Hq0 & E1 & E2 & E3 & E4 & E5 & E6 & E7).
    rewrite E7, E1, (local_eq q0 q x E3 E4). specialize (H1 w' q0 x t Hq0 Hx HX). cbn [no_pum app] in H1. exact H1.
  - intros w' q Hq. destruct (Hfp _ _ Hq) as (q0 & Hq0 & E1 & E2 & E3 & E4 & E5 & E6 & E7). rewrite E1, E2. eapply Hd; eassumption.
  - intros w' q Hq. destruct (Hfp _ _ Hq) as (q0 & Hq0 & E1 & E2 & E3 & E4 & E5 & E6 & E7). rewrite E1, E2. eapply Ht; eassumption.
  - intros w' q Hq. destruct (Hfp _ _ Hq) as (q0 & Hq0 & E1 & E2 & E3 & E4 & E5 & E6 & E7).
    destruct (H3 _ _ Hq0) as [L1 L2 L3 L4 L5]. constructor; rewrite ?E3, ?E4, ?E5, ?E6; assumption.
  - intros w' q x Hq Hx. destruct (Hfp _ _ Hq) as (q0 & Hq0 & E1 & E2 & E3 & E4 & E5 & E6 & E7).
    apply (H4 w' q0 x Hq0). left. unfold proc_tids in *. rewrite <- E7, flat_map_app, !in_app_iff. rewrite !in_app_iff in Hx. rewrite E1, E3, E4 in Hx.
    rewrite msgs_for_nil in Hx. cbn [flat_map In] in Hx. tauto.
  - intros w' Hw'. unfold pum_one in Hw'. rewrite find_set_proc. cbn [wp_up wp_upd p_id]. rewrite Hid.
    destruct (N.eqb w' w); [discriminate | exfalso; apply Hw'; reflexivity].
Qed.

Theorem dup_step_PROTO s w s' outs : PROTO s -> UH s -> step s (OpDUp w) = Ok (s', outs) -> PROTO s'.
Proof.
  intros HP HU H. cbn [step] in H.
  destruct (find_proc (s_procs s) w) as [p|] eqn:Hp; [|discriminate]. destruct (p_up p) as [|m rest] eqn:Eu; [discriminate|].
  pose proof (SP_pop s w p m rest [OUp w m] HP HU Hp Eu) as S1.
  destruct m as [us|ids].
  - apply (SP_final (s', outs)). eapply on_task_update_SP; [|exact H]. exact S1.
  - apply (SP_final (s', outs)). eapply on_retract_response_SP; [|exact H]. exact S1.
Qed.

Lemma SP_reject_fresh s w u r : SP x0 s (pum_us w (u :: r)) [] -> reject_fresh s w u = true.
Proof.
  intros HS. destruct u as [t|t k|t rv|t rv|t rv|rq rv]; cbn [reject_fresh]; try reflexivity.
  - destruct (find_task (c_tasks (core_of s)) t) as [tk|] eqn:Ef; [|reflexivity].
    destruct (t_state tk) eqn:Est; try reflexivity.
    pose proof (sp_mnt _ _ _ _ HS _ _ Ef eq_refl) as M. unfold mn_task_ok in M. rewrite Est in M.
    destruct (nth_error (c_rqs (core_of s)) (N.to_nat (t_rq tk))); [exact M | reflexivity].
  - destruct (find_task (c_tasks (core_of s)) t) as [tk|] eqn:Ef; [|reflexivity].
    destruct (reject_head _ _ _ _ _ _ _ _ HS Ef eq_refl) as (rv1 & -> & Ev). rewrite Ev, !N.eqb_refl. reflexivity.
Qed.

Lemma SP_rejects_fresh us : forall s w, SP x0 s (pum_us w us) [] -> rejects_fresh s w us = true.
Proof.
  induction us as [|u r IH]; intros s w HS; [reflexivity|]. cbn [rejects_fresh]. rewrite (SP_reject_fresh _ _ _ _ HS). cbn [andb].
  destruct (apply_one s w u) as [[s1 b]| |] eqn:E; try reflexivity. apply IH. eapply apply_one_SP; eassumption.
Qed.

Theorem PROTO_implies_step_fresh s o : PROTO s -> UH s -> step_fresh s o = true.
Proof.
  intros HP HU. destruct o; try reflexivity. cbn [step_fresh].
  destruct (find_proc (s_procs s) w) as [p|] eqn:Hp; [|reflexivity]. destruct (p_up p) as [|[us|ids] rest] eqn:Eu; try reflexivity.
  apply SP_rejects_fresh. exact (SP_pop s w p (UUpdates us) rest _ HP HU Hp Eu).
Qed.
