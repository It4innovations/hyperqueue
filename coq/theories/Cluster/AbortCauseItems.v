(** C14 / C03, "tasks are aborted only with a cause": the operations that create
    jobs and tasks (array submit, task-graph submit, open), the item list, and the monitor's
    dependency entries versus the dependency lists the core keeps.

    [ACCEPT]: what an accepted submit does, concretely - the job [jid] it goes to is a job of the
    state before or the new job with the counter's id; the job afterwards is that job with the
    ids [ids] attached ([attach_ids]: the ids are pairwise different and new to the job); every
    other job is untouched; the outputs are the [EvSubmit] event and the response listing ALL task
    ids of the job; a task of the core afterwards was there before with the same dependency list,
    or is one of the submitted tasks and keeps a sublist of its raw dependencies ([grown]).
    [REJECT]: a refused submit changes neither the jobs nor the tasks and answers with an error.

    Items.  [items_of_stepK known o outs] builds the items of one operation as the driver
    (ocaml/cluster/driver.ml) does: an event gives [IEv], a launch [ILaunch], the response
    [RSubmitOk j _ ids] gives [ISubmitted j tasks] where, for a task-graph submit, [tasks] are the
    (id, raw dependencies) of the graph of the operation and, for an array submit, the ids of the
    response that are NOT yet [known j] (the driver remembers per job the ids of the last response),
    without dependencies.  [run_items'] threads that table through the history exactly like the
    driver.

    [KD s D]: every task of the core of [s] has an entry in the monitor's accumulator [D] - the one
    [find] returns - and that entry lists every dependency the core keeps for the task.  Preserved
    by an accepted graph submit ([KD_accept_graph]), an accepted array submit
    ([KD_accept_array]) and by every step that answers no submit and keeps the dependency lists. *)
From HQ Require Import Base.Prelude Cluster.Types Cluster.Core Cluster.Reactor Cluster.Worker Cluster.Server Cluster.Sys Cluster.Monitors Cluster.ProofsJob Cluster.ProofsMore Cluster.ProofsTerminal Cluster.ProofsStep Cluster.ProofsFinal Cluster.BijBase Cluster.BijCore Cluster.BijHq Cluster.BijSt Cluster.BijReact Cluster.BijFinal Cluster.ProofsOnce Cluster.InvDBase Cluster.InvDSpec Cluster.InvDRem Cluster.InvDReact Cluster.InvDStep Cluster.DepOrderBase Cluster.DepOrderReact Cluster.DepOrderStep Cluster.DepOrderJournal Cluster.FrameGen Cluster.CrashFrame Cluster.StartFinBase Cluster.InvDHq Cluster.AbortCauseBase Cluster.AbortCauseJob.
From HQ Require Import Cluster.ModelFacts.
From Coq Require Import ZArith Lia FinFun.
Local Open Scope N_scope.

Arguments N.add : simpl never.
Arguments N.sub : simpl never.

Lemma attach_ids_facts ids : forall j j', attach_ids j ids = Ok j' ->
  NoDup ids /\ j_id j' = j_id j /\ j_maxfails j' = j_maxfails j /\ j_nfail j' = j_nfail j /\
  (forall i, jt_find (j_tasks j') i <> None <-> In i ids \/ jt_find (j_tasks j) i <> None).
Proof.
  induction ids as [|i0 r IH]; cbn [attach_ids]; intros j j' H.
  - inversion H; subst. split; [constructor|]. repeat (split; [reflexivity|]). intros i. cbn [In]. tauto.
  - destruct (jt_find (j_tasks j) i0) eqn:Ef; [discriminate|].
    pose proof (attach_ids_fresh _ _ _ H) as Hfr.
    destruct (IH _ _ H) as (Nd & A & B & C & Dm). cbn [job_set_task j_id j_maxfails j_nfail j_tasks job_upd] in *.
    split; [|split; [exact A|]; split; [exact B|]; split; [exact C|]].
    + constructor; [|exact Nd]. intros Hin. specialize (Hfr _ Hin). rewrite jt_find_set, N.eqb_refl in Hfr. discriminate.
    + intros i. rewrite Dm, jt_find_set. cbn [In]. destruct (N.eqb i i0) eqn:E.
      * apply N.eqb_eq in E. subst i. split; [intros _; left; left; reflexivity | intros _; right; discriminate].
      * apply N.eqb_neq in E. split; [intros [Hi|Hi]; [left; right; exact Hi | right; exact Hi] | intros [[Hi|Hi]|Hi]; [congruence | left; exact Hi | right; exact Hi]].
Qed.

Lemma jt_find_dom l i : jt_find l i <> None <-> In i (map fst l).
Proof.
  induction l as [|[k v] r IH]; cbn [jt_find map fst In]; [tauto|].
  destruct (N.eqb i k) eqn:E.
  - apply N.eqb_eq in E. subst k. split; [intros _; left; reflexivity | intros _; discriminate].
  - apply N.eqb_neq in E. rewrite IH. split; [intros H; right; exact H | intros [H|H]; [congruence | exact H]].
Qed.

Lemma submit_tail_Y s4 jid ids tasks s' :
  PRE s4 -> Forall new_wf tasks -> map t_id tasks = map (fun i => (jid, i)) ids ->
  (do j <- hq_get_job s4 jid 222;
   do j' <- attach_ids j ids;
   do s6 <- on_new_tasks (hq_set_job s4 j') tasks;
   submit_ok_resp s6 jid) = Ok s' ->
  exists j j', find_job (jobs s4) jid = Some j /\ j_id j = jid /\ attach_ids j ids = Ok j' /\
    hq_of s' = hq_of (hq_set_job s4 j') /\
    snd s' = snd s4 ++ [OResp (RSubmitOk jid (job_n_tasks j') (map fst (j_tasks j')))] /\
    grown tasks (fm (core_of s4)) (fm (core_of s')).
Proof.
  intros [G4 D4] Hwf Hids H.
  apply bind_ok in H. destruct H as (j & Hj & H). apply bind_ok in H. destruct H as (j' & Ha & H).
  apply bind_ok in H. destruct H as (s6 & H6 & H).
  destruct (jt_get _ _ _ _ Hj) as [Ej Eid]. destruct (get_find _ _ _ _ Hj) as [Hfj _].
  pose proof (attach_ids_fresh _ _ _ Ha) as Hfr.
  destruct (attach_ids_facts _ _ _ Ha) as (_ & Hid' & _).
  set (s5 := hq_set_job s4 j') in *.
  assert (Hnd : forall t x tx, In t tasks -> fm (core_of s5) x = Some tx -> ~ In (t_id t) (t_deps tx)).
  { intros t x tx Hin Ex Hdep. change (fm (core_of s4) x = Some tx) in Ex.
    destruct (D4 _ _ _ Ex Hdep) as [_ (l & Hl & Hk)].
    assert (Hi : In (t_id t) (map (fun i => (jid, i)) ids)) by (rewrite <- Hids; apply in_map; exact Hin).
    apply in_map_iff in Hi. destruct Hi as (i & Ei & Hi). rewrite <- Ei in Hl, Hk. cbn [fst snd] in Hl, Hk.
    rewrite Ej in Hl. inversion Hl; subst l. apply Hk. apply Hfr. exact Hi. }
  destruct (on_new_tasks_DI s5 tasks s6 G4 Hwf Hnd H6) as [_ Gr].
  pose proof (on_new_tasks_hq _ _ _ H6) as Q6. pose proof (on_new_tasks_snd _ _ _ H6) as S6.
  unfold submit_ok_resp in H. apply bind_ok in H. destruct H as (jx & Hjx & H). inversion H; subst s'. clear H.
  destruct (get_find _ _ _ _ Hjx) as [Hfx _].
  assert (Ejx : jx = j').
  { unfold jobs in Hfx. rewrite Q6 in Hfx. pose proof (find_set_self s4 j') as Hs. unfold jobs in Hs. rewrite Hid', Eid in Hs.
    fold s5 in Hs. rewrite Hs in Hfx. inversion Hfx; reflexivity. }
  subst jx. exists j, j'. split; [exact Hfj|]. split; [exact Eid|]. split; [exact Ha|].
  split; [exact Q6|]. split; [cbn [snd emit]; rewrite S6; reflexivity|]. exact Gr.
Qed.

Record ACC (s : sys) (jid : N) (ids : list N) (tasks : list task) (s' : sys) (outs : list out)
           (ac_j ac_j' : job) (ac_ev : event) (ac_n : N) : Prop := mkACC {
  ac_src : find_job (h_jobs (s_hq s)) jid = Some ac_j \/
           (h_counter (s_hq s) = jid /\ j_tasks ac_j = [] /\ j_nfail ac_j = 0 /\ h_counter (s_hq s) < h_counter (s_hq s'));
  ac_attach : attach_ids ac_j ids = Ok ac_j';
  ac_new : find_job (h_jobs (s_hq s')) jid = Some ac_j';
  ac_other : forall k, k <> jid -> find_job (h_jobs (s_hq s')) k = find_job (h_jobs (s_hq s)) k;
  ac_cnt : h_counter (s_hq s) <= h_counter (s_hq s');
  ac_outs : outs = [OEv ac_ev; OResp (RSubmitOk jid ac_n (map fst (j_tasks ac_j')))];
  ac_evq : match ac_ev with EvSubmit _ _ _ => True | _ => False end;
  ac_grown : grown tasks (fm (s_core s)) (fm (s_core s'));
  ac_ids : map t_id tasks = map (fun i => (jid, i)) ids
}.
Definition ACCEPT (s : sys) (jid : N) (ids : list N) (tasks : list task) (s' : sys) (outs : list out) : Prop :=
  exists j j' ev n, ACC s jid ids tasks s' outs j j' ev n.

Record REJECT (s s' : sys) (outs : list out) : Prop := mkREJECT {
  rj_hq : s_hq s' = s_hq s;
  rj_tasks : c_tasks (s_core s') = c_tasks (s_core s);
  rj_outs : exists a b, outs = [OResp (RSubmitErr a b)]
}.

Lemma prepare_jobs (s s1 : st) jid is_new mf ev :
  fresh s ->
  (if is_new : bool then jid = cnt_of s /\ s1 = hq_with s (hq_jobs s) (jid + 1) else s1 = s) ->
  let s2 := emit s1 (OEv ev) in
  let s3 := if is_new then hq_with s2 (set_job (hq_jobs s2) (mkJob jid false [] 0 0 0 0 0 false mf)) (hq_counter s2) else s2 in
  (forall k, find_job (jobs s3) k = if is_new && N.eqb k jid then Some (mkJob jid false [] 0 0 0 0 0 false mf) else find_job (jobs s) k) /\
  cnt_of s3 = (if is_new then jid + 1 else cnt_of s) /\ snd s3 = snd s ++ [OEv ev] /\ core_of s3 = core_of s.
Proof.
  intros F Hnew s2 s3. subst s3 s2. destruct is_new.
  - destruct Hnew as [-> ->]. split; [|split; [reflexivity | split; reflexivity]].
    intros k. unfold jobs, hq_of, hq_with, hq_jobs, emit. cbn [fst s_hq with_hq h_jobs]. rewrite find_job_set. cbn [j_id andb]. reflexivity.
  - subst s1. split; [intros k; reflexivity | split; [reflexivity | split; reflexivity]].
Qed.

Lemma accept_of_tail (s : st) jid is_new mf ev s3 s4 ids tasks s' :
  fresh s ->
  (forall k, find_job (jobs s3) k = if is_new && N.eqb k jid then Some (mkJob jid false [] 0 0 0 0 0 false mf) else find_job (jobs s) k) ->
  cnt_of s3 = (if is_new : bool then jid + 1 else cnt_of s) -> (is_new = true -> jid = cnt_of s) ->
  (match ev with EvSubmit _ _ _ => True | _ => False end) ->
  snd s = [] -> snd s3 = snd s ++ [OEv ev] ->
  hq_of s4 = hq_of s3 -> snd s4 = snd s3 -> c_tasks (core_of s4) = c_tasks (core_of s) -> c_tasks (core_of s3) = c_tasks (core_of s) ->
  PRE s4 -> Forall new_wf tasks -> map t_id tasks = map (fun i => (jid, i)) ids ->
  (do j <- hq_get_job s4 jid 222;
   do j' <- attach_ids j ids;
   do s6 <- on_new_tasks (hq_set_job s4 j') tasks;
   submit_ok_resp s6 jid) = Ok s' ->
  ACCEPT (fst s) jid ids tasks (fst s') (snd s').
Proof.
  intros F Hj3 Hc3 Hnew Hev Hs0 Hs3 Q4 S4 T4 T3 P4 Hwf Hids H.
  destruct (submit_tail_Y _ _ _ _ _ P4 Hwf Hids H) as (j & j' & Hfj & Eid & Ha & Q' & S' & Gr).
  destruct (attach_ids_facts _ _ _ Ha) as (_ & Hid' & _).
  assert (Hj4 : forall k, find_job (jobs s4) k = find_job (jobs s3) k) by (intros k; unfold jobs; rewrite Q4; reflexivity).
  assert (Hj' : forall k, find_job (jobs s') k = if N.eqb k jid then Some j' else find_job (jobs s4) k).
  { intros k. unfold jobs. rewrite Q'. unfold hq_of, hq_set_job. cbn [fst s_hq with_hq h_jobs]. rewrite find_job_set, Hid', Eid. reflexivity. }
  assert (Hc' : cnt_of s' = cnt_of s3).
  { unfold cnt_of. rewrite Q', <- Q4. reflexivity. }
  exists j, j', ev, (job_n_tasks j'). constructor.
  - rewrite Hj4, Hj3 in Hfj. destruct is_new; cbn [andb] in Hfj.
    + rewrite N.eqb_refl in Hfj. inversion Hfj; subst j. right. specialize (Hnew eq_refl).
      change (h_counter (s_hq (fst s))) with (cnt_of s). change (h_counter (s_hq (fst s'))) with (cnt_of s').
      split; [symmetry; exact Hnew|]. split; [reflexivity|]. split; [reflexivity|]. rewrite Hc', Hc3. lia.
    + left. exact Hfj.
  - exact Ha.
  - change (find_job (jobs s') jid = Some j'). rewrite Hj', N.eqb_refl. reflexivity.
  - intros k Hk. change (find_job (jobs s') k = find_job (jobs s) k). rewrite Hj'.
    apply N.eqb_neq in Hk. rewrite Hk, Hj4, Hj3, Hk, andb_false_r. reflexivity.
  - change (cnt_of s <= cnt_of s'). rewrite Hc', Hc3. destruct is_new; [rewrite (Hnew eq_refl)|]; lia.
  - rewrite S', S4, Hs3, Hs0. reflexivity.
  - exact Hev.
  - assert (E4 : fm (core_of s4) = fm (s_core (fst s))) by (unfold fm; rewrite T4; reflexivity).
    rewrite E4 in Gr. exact Gr.
  - exact Hids.
Qed.

Lemma submit_graph_AR (s : sys) jobsel rqs ts mf s' outs :
  fresh (s, []) -> PRE (s, []) ->
  handle_submit_graph (s, []) jobsel rqs ts mf = Ok (s', outs) ->
  REJECT s s' outs \/ exists jid tasks, ACCEPT s jid (map gt_id ts) tasks s' outs /\
     forall t, In t tasks -> exists g, In g ts /\ t_id t = (jid, gt_id g) /\ t_deps t = dedup_sorted (gt_deps g) [] jid.
Proof.
  intros F P H. unfold handle_submit_graph in H.
  set (existing := match jobsel with Some j0 => find_job (hq_jobs (s, [])) j0 | None => None end) in *.
  set (job_tasks := match existing with Some j0 => j_tasks j0 | None => [] end) in *.
  apply bind_ok in H. destruct H as (v1 & Hv1 & H).
  assert (Hrej : forall a b, (s', outs) = emit (s, []) (OResp (RSubmitErr a b)) -> REJECT s s' outs).
  { intros a b E. inversion E; subst. constructor; [reflexivity | reflexivity | eauto]. }
  match type of H with (match ?x with Some _ => _ | None => _ end) = _ => destruct x as [e|] eqn:Ev end.
  { left. inversion H; subst.
    assert (He : exists a b, e = RSubmitErr a b).
    { destruct v1 as [e1|]; [inversion Ev; subst e1|].
      - destruct existing as [j0|]; [|discriminate]. eapply graph_ids_fresh_err; exact Hv1.
      - eapply validate_graph_err; exact Ev. }
    destruct He as (a & b & ->). constructor; [reflexivity | reflexivity | eauto]. }
  apply bind_ok in H. destruct H as ([acc s1] & Hr & H).
  destruct acc as [[jid is_new]|].
  2:{ left. assert (E1 : (exists a b, s1 = emit (s, []) (OResp (RSubmitErr a b)))).
      { destruct jobsel as [jid|]; [|inversion Hr].
        unfold existing in Hr. destruct (find_job (hq_jobs (s, [])) jid) as [j|]; [|inversion Hr; subst; eauto].
        destruct (negb (j_open j)); inversion Hr; subst; eauto. }
      destruct E1 as (a & b & ->). inversion H; subst. exact (Hrej a b eq_refl). }
  clear Hrej. right. cbv zeta in H.
  assert (Hnew : if is_new : bool then jid = cnt_of (s, []) /\ s1 = hq_with (s, []) (hq_jobs (s, [])) (jid + 1) else s1 = (s, [])).
  { destruct jobsel as [j0|].
    - unfold existing in Hr. destruct (find_job (hq_jobs (s, [])) j0) as [j|] eqn:Ef; [|inversion Hr].
      destruct (negb (j_open j)); [inversion Hr|]. inversion Hr; subst. reflexivity.
    - inversion Hr; subst. split; reflexivity. }
  match type of H with context [fold_left ?f rqs (?sx, [])] => set (s3 := sx) in *; destruct (fold_left f rqs (s3, [])) as [s4 rqis] eqn:Erq end.
  destruct (prepare_jobs (s, []) s1 jid is_new mf (EvSubmit jid is_new (N.of_nat (length ts))) F Hnew) as (Hj3 & Hc3 & Hs3 & Hco3).
  cbv zeta in Hj3, Hc3, Hs3, Hco3. fold s3 in Hj3, Hc3, Hs3, Hco3.
  assert (P3 : PRE s3).
  { destruct is_new.
    - destruct Hnew as [-> ->]. subst s3. apply PRE_new_job; assumption.
    - subst s1. subst s3. eapply PRE_frame; [| |exact P]; [reflexivity | apply KL_same; reflexivity]. }
  pose proof (fold_rqs_tasks _ _ _ _ _ Erq) as T4. pose proof (fold_rqs_same _ _ _ _ _ Erq) as Q4.
  pose proof (fold_rqs_snd _ _ _ _ _ Erq) as S4.
  assert (P4 : PRE s4) by (eapply PRE_frame; [exact T4 | apply KL_same; exact Q4 | exact P3]).
  assert (T3 : c_tasks (core_of s3) = c_tasks (core_of (s, []))) by (rewrite Hco3; reflexivity).
  apply bind_ok in H. destruct H as (j & Hj & H). apply bind_ok in H. destruct H as (j' & Ha & H).
  apply bind_ok in H. destruct H as (tasks & Hg & H).
  destruct (graph_tasks_spec _ _ _ _ Hg) as [G1 _].
  exists jid, tasks. split.
  - apply (accept_of_tail (s, []) jid is_new mf (EvSubmit jid is_new (N.of_nat (length ts))) s3 s4 (map gt_id ts) tasks (s', outs));
      [exact F | exact Hj3 | exact Hc3 | | exact I | reflexivity | exact Hs3 | exact Q4 | exact S4 | rewrite T4; exact T3 | exact T3
       | exact P4 | exact (graph_tasks_wf _ _ _ _ Hg) | exact G1 |].
    + intros ->. apply Hnew.
    + rewrite Hj. cbn [bind]. rewrite Ha. cbn [bind]. exact H.
  - clear -Hg. revert tasks Hg. induction ts as [|g r IH]; cbn [graph_tasks]; intros tasks Hg t Ht; [inversion Hg; subst; destruct Ht|].
    destruct (nth_error rqis (N.to_nat (gt_rq g))) as [rqi|]; [|discriminate].
    apply bind_ok in Hg. destruct Hg as (rest & Hr & Hg). inversion Hg; subst tasks. destruct Ht as [<-|Ht].
    + exists g. split; [left; reflexivity|]. split; reflexivity.
    + destruct (IH _ Hr t Ht) as (g0 & A & B). exists g0. split; [right; exact A | exact B].
Qed.

Lemma submit_array_AR (s : sys) jobsel ids entries rq prio cl tlim mf s' outs :
  fresh (s, []) -> PRE (s, []) -> (match entries with Some n => (length ids <= N.to_nat n)%nat | None => True end) ->
  handle_submit_array (s, []) jobsel ids entries rq prio cl tlim mf = Ok (s', outs) ->
  REJECT s s' outs \/ exists jid ids' tasks, ACCEPT s jid ids' tasks s' outs /\ forall t, In t tasks -> t_deps t = [].
Proof.
  intros F P Hwf H. unfold handle_submit_array in H.
  match type of H with (match ?x with Some _ => _ | None => _ end) = _ => destruct x end;
    [left; inversion H; subst; constructor; [reflexivity | reflexivity | eauto]|].
  apply bind_ok in H. destruct H as ([acc s1] & Hr & H).
  destruct acc as [[[jid is_new] ids']|].
  - right. cbv zeta in H.
    assert (Hnew : (if is_new : bool then jid = cnt_of (s, []) /\ s1 = hq_with (s, []) (hq_jobs (s, [])) (jid + 1) else s1 = (s, []))
                   /\ (match entries with Some n => (length ids' <= N.to_nat n)%nat | None => True end)).
    { destruct jobsel as [j0|].
      - destruct (find_job (hq_jobs (s, [])) j0) as [j|] eqn:Ef; [|inversion Hr].
        destruct (negb (j_open j)); [inversion Hr|]. inversion Hr; subst. split; [reflexivity|].
        destruct ids; [|exact Hwf]. destruct entries as [n|]; [|exact I]. rewrite range_from_length. lia.
      - inversion Hr; subst. split; [split; reflexivity|].
        destruct ids; [|exact Hwf]. destruct entries as [n|]; [|exact I]. rewrite range_from_length. lia. }
    destruct Hnew as [Hnew Hwf'].
    match type of H with context [get_or_create_rq ?sx rq] => set (s3 := sx) in *; destruct (get_or_create_rq s3 rq) as [s4 rqi] eqn:Erq end.
    destruct (prepare_jobs (s, []) s1 jid is_new mf (EvSubmit jid is_new (N.of_nat (length ids'))) F Hnew) as (Hj3 & Hc3 & Hs3 & Hco3).
    cbv zeta in Hj3, Hc3, Hs3, Hco3. fold s3 in Hj3, Hc3, Hs3, Hco3.
    assert (P3 : PRE s3).
    { destruct is_new.
      - destruct Hnew as [-> ->]. subst s3. apply PRE_new_job; assumption.
      - subst s1. subst s3. eapply PRE_frame; [| |exact P]; [reflexivity | apply KL_same; reflexivity]. }
    pose proof (get_or_create_rq_tasks s3 rq) as T4. rewrite Erq in T4. cbn [fst] in T4.
    pose proof (get_or_create_rq_same s3 rq) as Q4. rewrite Erq in Q4. cbn [fst] in Q4.
    pose proof (get_or_create_rq_snd s3 rq) as S4. rewrite Erq in S4. cbn [fst] in S4.
    assert (P4 : PRE s4) by (eapply PRE_frame; [exact T4 | apply KL_same; exact Q4 | exact P3]).
    assert (T3 : c_tasks (core_of s3) = c_tasks (core_of (s, []))) by (rewrite Hco3; reflexivity).
    set (tids := match entries with Some n => fst (take_n (N.to_nat n) ids') | None => ids' end) in *.
    assert (Etids : tids = ids') by (subst tids; destruct entries as [n|]; [apply take_n_all; exact Hwf' | reflexivity]).
    exists jid, ids', (map (fun i => fresh_task (jid, i) [] rqi prio cl tlim) tids). split.
    + apply (accept_of_tail (s, []) jid is_new mf (EvSubmit jid is_new (N.of_nat (length ids'))) s3 s4 ids' _ (s', outs));
        [exact F | exact Hj3 | exact Hc3 | | exact I | reflexivity | exact Hs3 | exact Q4 | exact S4 | rewrite T4; exact T3 | exact T3
         | exact P4 | | | exact H].
      * intros ->. apply Hnew.
      * apply Forall_forall. intros t Ht. apply in_map_iff in Ht. destruct Ht as (i & <- & _). split; [constructor | reflexivity].
      * rewrite map_map, Etids. reflexivity.
    + intros t Ht. apply in_map_iff in Ht. destruct Ht as (i & <- & _). reflexivity.
  - left.
    destruct jobsel as [j0|].
    + destruct (find_job (hq_jobs (s, [])) j0) as [j|] eqn:Ef.
      * destruct (negb (j_open j)); inversion Hr; subst. inversion H; subst. constructor; [reflexivity | reflexivity | eauto].
      * inversion Hr; subst. inversion H; subst. constructor; [reflexivity | reflexivity | eauto].
    + inversion Hr.
Qed.

Lemma handle_open_jobs (s : sys) mf s' outs :
  handle_open (s, []) mf = Ok (s', outs) ->
  let jid := h_counter (s_hq s) in
  (forall k, find_job (h_jobs (s_hq s')) k = if N.eqb k jid then Some (mkJob jid true [] 0 0 0 0 0 false mf) else find_job (h_jobs (s_hq s)) k) /\
  h_counter (s_hq s') = jid + 1 /\ s_core s' = s_core s /\ outs = [OEv (EvOpen jid); OResp (ROpen jid)].
Proof.
  unfold handle_open. intros H. inversion H; subst. cbv zeta. split; [|split; [reflexivity | split; reflexivity]].
  intros k. unfold hq_with, hq_jobs, hq_counter, emit. cbn [fst s_hq with_hq h_jobs]. rewrite find_job_set. reflexivity.
Qed.

Print Assumptions submit_graph_AR.
Print Assumptions submit_array_AR.

Definition sub_tasksK (known : N -> list N) (o : op) (j : N) (ids : list N) : list (N * list N) :=
  match o with
  | OpSubmitG _ _ ts _ => map (fun g => (gt_id g, gt_deps g)) ts
  | _ => map (fun i => (i, [])) (filter (fun i => negb (n_mem i (known j))) ids)
  end.
Definition item_of_outK (known : N -> list N) (o : op) (x : out) : list item :=
  match x with
  | OEv e => [IEv e]
  | OLaunch l => [ILaunch l]
  | OResp (RSubmitOk j _ ids) => [ISubmitted j (sub_tasksK known o j ids)]
  | _ => []
  end.
Definition items_of_stepK (known : N -> list N) (o : op) (outs : list out) : list item := flat_map (item_of_outK known o) outs.

(** The driver's table: job -> ids of the last accepted submit's response. *)
Definition kn_get (kn : list (N * list N)) (j : N) : list N :=
  match find (fun e => N.eqb (fst e) j) kn with Some e => snd e | None => [] end.
Definition kn_upd1 (kn : list (N * list N)) (x : out) : list (N * list N) :=
  match x with OResp (RSubmitOk j _ ids) => (j, ids) :: kn | _ => kn end.
Definition kn_upd (kn : list (N * list N)) (outs : list out) : list (N * list N) := fold_left kn_upd1 outs kn.

Fixpoint run_items' (kn : list (N * list N)) (s : sys) (ops : list op) : res (sys * list item) :=
  match ops with
  | [] => Ok (s, [])
  | o :: r =>
      do (s1, o1) <- step s o;
      do (s2, i2) <- run_items' (kn_upd kn o1) s1 r;
      Ok (s2, items_of_stepK (kn_get kn) o o1 ++ i2)
  end.

Lemma item_single kn o x : item_of_outK kn o x = [] \/ exists i, item_of_outK kn o x = [i].
Proof. destruct x as [e|l|r| | | |]; cbn [item_of_outK]; eauto. destruct r; eauto. Qed.

Lemma item_ev kn o x e : item_of_outK kn o x = [IEv e] -> x = OEv e.
Proof. destruct x as [e0|l|r| | | |]; cbn [item_of_outK]; try discriminate; [intros H; inversion H; reflexivity|]. destruct r; discriminate. Qed.

Lemma items_app kn o a b : items_of_stepK kn o (a ++ b) = items_of_stepK kn o a ++ items_of_stepK kn o b.
Proof. unfold items_of_stepK. apply flat_map_app. Qed.

Lemma items_NS kn o outs : NS outs -> forall D, jdeps D (items_of_stepK kn o outs) = D.
Proof.
  induction outs as [|x r IH]; intros Hn D; [reflexivity|].
  unfold NS in Hn. cbn [forallb] in Hn. apply andb_true_iff in Hn. destruct Hn as [H1 H2].
  unfold items_of_stepK. cbn [flat_map]. fold (items_of_stepK kn o r).
  destruct x as [e|l|rs| | | |]; cbn [item_of_outK app jdeps]; try (apply IH; exact H2).
  destruct rs; cbn [app jdeps]; try (apply IH; exact H2). discriminate.
Qed.

Lemma infailed_items kn o k outs : infailed k (items_of_stepK kn o outs) = onfailed k outs.
Proof.
  induction outs as [|x r IH]; [reflexivity|].
  unfold items_of_stepK. cbn [flat_map]. fold (items_of_stepK kn o r). rewrite infailed_app, IH. cbn [onfailed].
  destruct x as [e|l|rs| | | |]; cbn [item_of_outK infailed ifailed1 ofailed1]; try lia.
  destruct rs; cbn [infailed ifailed1]; lia.
Qed.

Lemma NS_app_l a b : NS (a ++ b) -> NS a.
Proof. unfold NS. rewrite forallb_app. intros H. apply andb_true_iff in H. apply H. Qed.

Lemma dfind_app_notin (N0 D : list (tid * list tid)) x :
  (forall e, In e N0 -> fst e <> x) -> dfind (N0 ++ D) x = dfind D x.
Proof.
  intros H. unfold dfind. induction N0 as [|[k ds] r IH]; [reflexivity|].
  cbn [app find fst]. destruct (tid_eqb k x) eqn:E.
  - apply tid_eqb_eq in E. exfalso. apply (H (k, ds)); [left; reflexivity | exact E].
  - apply IH. intros e He. apply H. right; exact He.
Qed.

Lemma dfind_app_in (N0 D : list (tid * list tid)) x ds :
  NoDup (map fst N0) -> In (x, ds) N0 -> dfind (N0 ++ D) x = Some ds.
Proof.
  unfold dfind. induction N0 as [|[k ds0] r IH]; intros Nd Hin; [destruct Hin|].
  cbn [map fst] in Nd. inversion Nd as [|? ? Hn Nd']; subst.
  cbn [app find fst]. destruct Hin as [Hin|Hin].
  - inversion Hin; subst. rewrite tid_eqb_refl. reflexivity.
  - destruct (tid_eqb k x) eqn:E.
    + apply tid_eqb_eq in E. subst k. exfalso. apply Hn. apply in_map_iff. exists (x, ds). split; [reflexivity | exact Hin].
    + apply IH; assumption.
Qed.

Lemma dfind_app_key (N0 D : list (tid * list tid)) x :
  In x (map fst N0) -> exists ds, dfind (N0 ++ D) x = Some ds /\ exists e, In e N0 /\ snd e = ds.
Proof.
  unfold dfind. induction N0 as [|[k ds0] r IH]; intros Hin; [destruct Hin|].
  cbn [app find fst]. destruct (tid_eqb k x) eqn:E.
  - exists ds0. split; [reflexivity|]. exists (k, ds0). split; [left; reflexivity | reflexivity].
  - cbn [map fst In] in Hin. destruct Hin as [Hin|Hin]; [subst k; rewrite tid_eqb_refl in E; discriminate|].
    destruct (IH Hin) as (ds & A & e & B & C). exists ds. split; [exact A|]. exists e. split; [right; exact B | exact C].
Qed.

Lemma dedup_sorted_sub l : forall acc j x, In x (dedup_sorted l acc j) -> (exists d0, x = (j, d0) /\ In d0 l) \/ In x acc.
Proof.
  induction l as [|h t IH]; cbn [dedup_sorted]; intros acc j x H; [right; exact H|].
  destruct (IH _ _ _ H) as [(d0 & E & Hd)|Hacc]; [left; exists d0; split; [exact E | right; exact Hd]|].
  destruct (tid_insert_in _ _ _ Hacc) as [->|Hin]; [left; exists h; split; [reflexivity | left; reflexivity] | right; exact Hin].
Qed.

Definition KD (s : sys) (D : list (tid * list tid)) : Prop :=
  forall x tx, fm (s_core s) x = Some tx -> exists ds, dfind D x = Some ds /\ incl (t_deps tx) ds.

Lemma KD_dsub s s' D : dsub (fm (s_core s)) (fm (s_core s')) -> KD s D -> KD s' D.
Proof. intros S H x tx' Ex. destruct (S _ _ Ex) as (tx & Et & Ed). rewrite Ed. exact (H _ _ Et). Qed.

Lemma old_not_attached s jid ids tasks s' outs j j' ev n x tx i :
  fresh (s, []) -> CB (s, []) -> ACC s jid ids tasks s' outs j j' ev n ->
  fm (s_core s) x = Some tx -> x = (jid, i) -> ~ In i ids.
Proof.
  intros F HC A Ex -> Hin.
  pose proof (core_task_active (s, []) _ _ HC Ex) as (l & Hl & Ha). cbn [fst snd] in Hl, Ha.
  unfold jt, hq_of in Hl. cbn [fst] in Hl.
  destruct (find_job (h_jobs (s_hq s)) jid) as [jb|] eqn:Ef; [|discriminate]. cbn [option_map] in Hl. inversion Hl; subst l.
  destruct (ac_src _ _ _ _ _ _ _ _ _ _ A) as [Hs|(Hc & _)].
  - rewrite Ef in Hs. inversion Hs; subst jb.
    pose proof (attach_ids_fresh _ _ _ (ac_attach _ _ _ _ _ _ _ _ _ _ A) _ Hin) as Hn. rewrite Hn in Ha. destruct Ha; discriminate.
  - pose proof (F _ (find_job_in _ _ _ Ef)) as Hlt. rewrite (find_job_id _ _ _ Ef) in Hlt. unfold cnt_of, hq_of in Hlt. cbn [fst] in Hlt. lia.
Qed.

Lemma KD_accept_graph kn s jid jobsel rqs ts mf tasks s' outs D :
  fresh (s, []) -> CB (s, []) -> ACCEPT s jid (map gt_id ts) tasks s' outs ->
  (forall t, In t tasks -> exists g, In g ts /\ t_id t = (jid, gt_id g) /\ t_deps t = dedup_sorted (gt_deps g) [] jid) ->
  KD s D -> KD s' (jdeps D (items_of_stepK kn (OpSubmitG jobsel rqs ts mf) outs)).
Proof.
  intros F HC (j & j' & ev & n & A) Htasks HD.
  rewrite (ac_outs _ _ _ _ _ _ _ _ _ _ A). unfold items_of_stepK. cbn [flat_map item_of_outK sub_tasksK app jdeps].
  set (N0 := sub_edges jid (map (fun g => (gt_id g, gt_deps g)) ts)).
  destruct (attach_ids_facts _ _ _ (ac_attach _ _ _ _ _ _ _ _ _ _ A)) as (Nd & _).
  assert (Hkeys : map fst N0 = map (fun g => (jid, gt_id g)) ts).
  { unfold N0, sub_edges. rewrite !map_map. reflexivity. }
  assert (NdN : NoDup (map fst N0)).
  { rewrite Hkeys. rewrite <- (map_map gt_id (fun i => (jid, i))). apply Injective_map_NoDup; [|exact Nd].
    intros a b E. inversion E; reflexivity. }
  intros x tx' Ex. destruct (ac_grown _ _ _ _ _ _ _ _ _ _ A _ _ Ex) as [(tx & Et & Ed)|(t & Hin & -> & Hincl & _)].
  - destruct (HD _ _ Et) as (ds & Hf & Hi). exists ds. split; [|rewrite Ed; exact Hi].
    rewrite dfind_app_notin; [exact Hf|]. intros e He Hk.
    assert (Hx : In x (map fst N0)) by (rewrite <- Hk; apply in_map; exact He).
    rewrite Hkeys in Hx. apply in_map_iff in Hx. destruct Hx as (g & Eg & Hg).
    apply (old_not_attached _ _ _ _ _ _ _ _ _ _ _ _ (gt_id g) F HC A Et (eq_sym Eg)). apply in_map. exact Hg.
  - destruct (Htasks _ Hin) as (g & Hg & Eid & Edeps). rewrite Eid.
    exists (map (fun d => (jid, d)) (gt_deps g)). split.
    + apply dfind_app_in; [exact NdN|]. unfold N0, sub_edges. apply in_map_iff. exists (gt_id g, gt_deps g). split; [reflexivity|].
      apply in_map_iff. exists g. split; [reflexivity | exact Hg].
    + intros d Hd. apply Hincl in Hd. rewrite Edeps in Hd.
      destruct (dedup_sorted_sub _ _ _ _ Hd) as [(d0 & -> & Hd0)|[]]. apply in_map. exact Hd0.
Qed.

Lemma KD_accept_array kn s o jid ids tasks s' outs D :
  (match o with OpSubmitG _ _ _ _ => False | _ => True end) ->
  fresh (s, []) -> CB (s, []) -> ACCEPT s jid ids tasks s' outs -> (forall t, In t tasks -> t_deps t = []) ->
  (forall j j' ev n, ACC s jid ids tasks s' outs j j' ev n -> forall i, n_mem i (kn jid) = true <-> jt_find (j_tasks j) i <> None) ->
  KD s D -> KD s' (jdeps D (items_of_stepK kn o outs)).
Proof.
  intros Ho F HC (j & j' & ev & n & A) Htasks Hkn HD. specialize (Hkn _ _ _ _ A).
  rewrite (ac_outs _ _ _ _ _ _ _ _ _ _ A). unfold items_of_stepK. cbn [flat_map item_of_outK app jdeps].
  set (fresh_ids := filter (fun i => negb (n_mem i (kn jid))) (map fst (j_tasks j'))).
  assert (Est : sub_tasksK kn o jid (map fst (j_tasks j')) = map (fun i => (i, [])) fresh_ids) by (destruct o; try reflexivity; destruct Ho).
  rewrite Est. clear Est.
  set (N0 := sub_edges jid (map (fun i : N => (i, @nil N)) fresh_ids)).
  destruct (attach_ids_facts _ _ _ (ac_attach _ _ _ _ _ _ _ _ _ _ A)) as (_ & _ & _ & _ & Dm).
  pose proof (attach_ids_fresh _ _ _ (ac_attach _ _ _ _ _ _ _ _ _ _ A)) as Hfr.
  assert (Hfresh : forall i, In i fresh_ids <-> In i ids).
  { intros i. unfold fresh_ids. rewrite filter_In, <- jt_find_dom, Dm. split.
    - intros [[Hi|Hi] Hm]; [exact Hi|]. apply negb_true_iff in Hm. apply Hkn in Hi. congruence.
    - intros Hi. split; [left; exact Hi|]. apply negb_true_iff. destruct (n_mem i (kn jid)) eqn:E; [|reflexivity].
      apply Hkn in E. rewrite (Hfr _ Hi) in E. exfalso. apply E. reflexivity. }
  assert (Hkeys : forall x, In x (map fst N0) <-> exists i, x = (jid, i) /\ In i ids).
  { intros x. unfold N0, sub_edges. rewrite !map_map. cbn [fst]. rewrite in_map_iff. split.
    - intros (i & <- & Hi). exists i. split; [reflexivity | apply Hfresh; exact Hi].
    - intros (i & -> & Hi). exists i. split; [reflexivity | apply Hfresh; exact Hi]. }
  assert (Hnil : forall e, In e N0 -> snd e = []).
  { intros e He. unfold N0, sub_edges in He. rewrite map_map in He. apply in_map_iff in He. destruct He as (i & <- & _). reflexivity. }
  intros x tx' Ex. destruct (ac_grown _ _ _ _ _ _ _ _ _ _ A _ _ Ex) as [(tx & Et & Ed)|(t & Hin & -> & Hincl & _)].
  - destruct (HD _ _ Et) as (ds & Hf & Hi). exists ds. split; [|rewrite Ed; exact Hi].
    rewrite dfind_app_notin; [exact Hf|]. intros e He Hk.
    assert (Hx : In x (map fst N0)) by (rewrite <- Hk; apply in_map; exact He).
    apply Hkeys in Hx. destruct Hx as (i & Ei & Hi2).
    exact (old_not_attached _ _ _ _ _ _ _ _ _ _ _ _ i F HC A Et Ei Hi2).
  - assert (Hk : In (t_id t) (map fst N0)).
    { apply Hkeys. assert (Hm : In (t_id t) (map t_id tasks)) by (apply in_map; exact Hin).
      rewrite (ac_ids _ _ _ _ _ _ _ _ _ _ A) in Hm. apply in_map_iff in Hm. destruct Hm as (i & Ei & Hi). exists i. split; [symmetry; exact Ei | exact Hi]. }
    destruct (dfind_app_key N0 D _ Hk) as (ds & Hf & _). exists ds. split; [exact Hf|].
    intros d Hd. apply Hincl in Hd. rewrite (Htasks _ Hin) in Hd. destruct Hd.
Qed.

Print Assumptions KD_accept_graph.
Print Assumptions KD_accept_array.
