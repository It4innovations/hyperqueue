(** C03 across a restart, part 6: the theorems under the STATIC hypothesis [ops_ok] (NoFresh.v)
    instead of the executable [run_fresh], non-vacuity witnesses, and the monitor on a wrong order.

    Summary of the DepOrder*.v files (property C03, item "restart"):
    - [DepOrderStep.step_dep_closed]   one operation from a state with the proved invariants [INV];
    - [DepOrderRun.history_dep_closed] every history, w.r.t. the edges the core keeps in any state;
    - [DepOrderJournal.journal_dep_closed_run] the executable monitor [Monitors.journal_dep_closed]
      (raw dependency lists of the accepted submits) accepts every history. *)
From HQ Require Import Base.Prelude Cluster.Types Cluster.Core Cluster.Worker Cluster.Server Cluster.Sys Cluster.Monitors Cluster.RejHyp Cluster.BijFinal Cluster.InvBundle Cluster.NoPanicU0 Cluster.NoFresh Cluster.ProofsOnce Cluster.DepOrderBase Cluster.DepOrderReact Cluster.DepOrderRun Cluster.DepOrderJournal.
From HQ Require Import Cluster.ModelFacts.
Local Open Scope N_scope.

Lemma run_items_to_run ops : forall s s' items, run_items s ops = Ok (s', items) -> exists outs, run s ops = Ok (s', outs).
Proof.
  induction ops as [|o r IH]; cbn [run run_items]; intros s s' items H; [inversion H; subst; eexists; reflexivity|].
  apply bind_ok in H. destruct H as ([s1 o1] & H1 & H). apply bind_ok in H. destruct H as ([s2 i2] & H2 & H). inversion H; subst.
  destruct (IH _ _ _ H2) as (o2 & Ho). rewrite H1. cbn [bind]. rewrite Ho. cbn [bind]. eexists; reflexivity.
Qed.

(** The monitor ignores every item that is neither an event nor a submit, and a submitted task
    without dependencies contributes nothing.  So the verdict does not depend on how the other
    items are interleaved, nor on which ids an array submit (no dependencies) is reported with -
    the two points where [items_of_step] is simpler than the driver. *)
Definition jrelevant (i : item) : bool := match i with IEv _ | ISubmitted _ _ => true | _ => false end.

Lemma jdc_filter tr : forall D T, journal_dep_closed D T tr = journal_dep_closed D T (filter jrelevant tr).
Proof.
  induction tr as [|i r IH]; intros D T; [reflexivity|].
  destruct i as [e| | | | | | | |j ts]; cbn [filter jrelevant journal_dep_closed]; try apply IH.
  destruct e; cbn [journal_dep_closed]; try apply IH; f_equal; apply IH.
Qed.

Lemma dependents_drop D1 D2 x t : dependents_of (D1 ++ (x, []) :: D2) t = dependents_of (D1 ++ D2) t.
Proof. unfold dependents_of. rewrite !filter_app, !map_app. reflexivity. Qed.

Lemma jdc_drop_nodeps tr : forall D1 D2 T x,
  journal_dep_closed (D1 ++ (x, []) :: D2) T tr = journal_dep_closed (D1 ++ D2) T tr.
Proof.
  induction tr as [|i r IH]; intros D1 D2 T x; [reflexivity|].
  destruct i as [e| | | | | | | |j ts]; cbn [journal_dep_closed]; try apply IH.
  - destruct e; cbn [journal_dep_closed]; try apply IH.
    + rewrite dependents_drop. f_equal. apply IH.
    + f_equal; [|apply IH]. apply forallb_ext. intros t. rewrite dependents_drop. reflexivity.
    + f_equal; [|apply IH]. apply forallb_ext. intros t. rewrite dependents_drop. reflexivity.
  - rewrite !app_assoc. apply IH.
Qed.

Lemma jdc_array_item ids : forall j D T tr,
  journal_dep_closed D T (ISubmitted j (map (fun i => (i, [])) ids) :: tr) = journal_dep_closed D T tr.
Proof.
  intros j D T tr. cbn [journal_dep_closed]. induction ids as [|i r IH]; [reflexivity|].
  cbn [map app fst snd]. etransitivity; [exact (jdc_drop_nodeps tr [] _ T (j, i)) | exact IH].
Qed.

Section Static.
Variables (ops : list op) (reserve maxfill : N).
Hypothesis Hwf : Forall op_wf ops.
Hypothesis Hok : ops_ok (init_sys reserve maxfill) ops = true.

Theorem history_dep_closed_ops s outs :
  run (init_sys reserve maxfill) ops = Ok (s, outs) ->
  forall pre e post t, outs = pre ++ OEv e :: post -> In t (kill_ids (OEv e)) ->
  forall ops1 ops2 s1 outs1 x tx, ops = ops1 ++ ops2 -> run (init_sys reserve maxfill) ops1 = Ok (s1, outs1) ->
    find_task (c_tasks (s_core s1)) x = Some tx -> In t (t_deps tx) ->
    In x (terminal_ids (pre ++ [OEv e])).
Proof.
  intros H. exact (history_dep_closed ops reserve maxfill s outs Hwf (fresh_of_ops _ _ _ _ _ Hwf Hok H) H).
Qed.

Theorem journal_dep_closed_run_ops s items :
  run_items (init_sys reserve maxfill) ops = Ok (s, items) -> journal_dep_closed [] [] items = true.
Proof.
  intros H. destruct (run_items_to_run _ _ _ _ H) as (outs & Hr).
  exact (journal_dep_closed_run ops reserve maxfill s items Hwf (fresh_of_ops _ _ _ _ _ Hwf Hok Hr) H).
Qed.

Corollary journal_dep_closed_robust s items tr :
  run_items (init_sys reserve maxfill) ops = Ok (s, items) ->
  filter jrelevant tr = filter jrelevant items -> journal_dep_closed [] [] tr = true.
Proof. intros H E. rewrite jdc_filter, E, <- jdc_filter. eapply journal_dep_closed_run_ops; exact H. Qed.
End Static.

Definition dep_rq : rqdef := mkRq 0 [10000; 0; 0].
Definition dep_ops : list op :=
  [OpConnect [20000; 0; 0] 0;
   OpSubmitG None [dep_rq] [(0, 0, 0%Z, CMax 3, []); (1, 0, 0%Z, CMax 3, [0]); (2, 0, 0%Z, CMax 3, [1]); (3, 0, 0%Z, CMax 3, [])] None;
   OpSched (mkSol [(0, 0, [(1, 2)])] [] [1] []);
   OpDDown 1 []; OpDDown 1 []; OpDUp 1; OpEnd 1 (1, 0) EndFail].

(** The hypotheses of [step_dep_closed] hold in the state before the failure is processed, the
    step emits the dependents' abort BEFORE the failure, and the core had the edges. *)
Example step_dep_closed_example :
  Forall op_wf dep_ops /\ run_fresh (init_sys 0 2) dep_ops = true /\ ops_ok (init_sys 0 2) dep_ops = true /\
  exists s outs s' t1 t2,
    run (init_sys 0 2) dep_ops = Ok (s, outs) /\ INV s /\
    step s (OpDUp 1) = Ok (s', [OUp 1 (UUpdates [UFailed (1, 0) FTask]); OEv (EvAborted [(1, 1); (1, 2)]); OEv (EvFailed (1, 0) FTask)]) /\
    find_task (c_tasks (s_core s)) (1, 1) = Some t1 /\ t_deps t1 = [(1, 0)] /\
    find_task (c_tasks (s_core s)) (1, 2) = Some t2 /\ t_deps t2 = [(1, 1)].
Proof.
  assert (Hwf : Forall op_wf dep_ops) by (repeat constructor).
  assert (Hf : run_fresh (init_sys 0 2) dep_ops = true) by (vm_compute; reflexivity).
  split; [exact Hwf|]. split; [exact Hf|]. split; [vm_compute; reflexivity|].
  destruct (run (init_sys 0 2) dep_ops) as [[s outs]| |] eqn:Er; [|vm_compute in Er; discriminate | vm_compute in Er; discriminate].
  pose proof (reachable_INV _ _ _ _ _ Hwf Hf Er) as HI.
  vm_compute in Er. inversion Er; subst s outs. clear Er.
  do 5 eexists. split; [reflexivity|]. split; [exact HI|].
  split; [vm_compute; reflexivity|]. split; [vm_compute; reflexivity|]. split; [reflexivity|]. split; [vm_compute; reflexivity | reflexivity].
Qed.

Example journal_dep_closed_example :
  exists s items, run_items (init_sys 0 2) (dep_ops ++ [OpDUp 1]) = Ok (s, items) /\
    In (ISubmitted 1 [(0, []); (1, [0]); (2, [1]); (3, [])]) items /\
    (exists a b c, items = a ++ IEv (EvAborted [(1, 1); (1, 2)]) :: b ++ IEv (EvFailed (1, 0) FTask) :: c) /\
    journal_dep_closed [] [] items = true.
Proof.
  do 2 eexists. split; [vm_compute; reflexivity|]. split; [vm_compute; tauto|].
  split; [|vm_compute; reflexivity].
  eexists (_ :: _ :: _ :: _ :: _ :: _ :: _ :: []), [], []. reflexivity.
Qed.

(** The monitor is not trivially true: the seeded bug "TaskFailed journalled before TasksAborted"
    and an abort that misses the transitive dependent are both rejected. *)
Example journal_dep_closed_rejects :
  journal_dep_closed [] [] [ISubmitted 1 [(0, []); (1, [0]); (2, [1])]; IEv (EvFailed (1, 0) FTask); IEv (EvAborted [(1, 1); (1, 2)])] = false
  /\ journal_dep_closed [] [] [ISubmitted 1 [(0, []); (1, [0]); (2, [1])]; IEv (EvAborted [(1, 1)]); IEv (EvFailed (1, 0) FTask)] = false
  /\ journal_dep_closed [] [] [ISubmitted 1 [(0, []); (1, [0]); (2, [1])]; IEv (EvAborted [(1, 1); (1, 2)]); IEv (EvFailed (1, 0) FTask)] = true.
Proof. vm_compute. repeat split; reflexivity. Qed.

Example jc_rejects :
  let Dep : deprel := fun x t => (x = (1, 1) /\ t = (1, 0)) in
  ~ jc Dep NoT [OEv (EvFailed (1, 0) FTask); OEv (EvAborted [(1, 1)])] /\
  jc Dep NoT [OEv (EvAborted [(1, 1)]); OEv (EvFailed (1, 0) FTask)].
Proof.
  intros Dep. split.
  - intros [H _]. destruct (H (1, 0) (1, 1) (or_introl eq_refl) (conj eq_refl eq_refl)) as [[E|[]]|[]]. discriminate.
  - cbn [jc]. split; [|split; [|exact I]].
    + intros t x [<-|[]] [_ E]. discriminate.
    + intros t x [<-|[]] [-> _]. right. left. left. reflexivity.
Qed.

Print Assumptions history_dep_closed_ops.
Print Assumptions journal_dep_closed_run_ops.
