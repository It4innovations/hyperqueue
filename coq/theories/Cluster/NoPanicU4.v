(** Protocol invariant, part 4: the loops of a worker process ([try_start_task],
    [prefill_loop], [compute_loop]) keep the word invariant of every present task, the local invariant
    [LOK], and mention only known task ids; [compute_loop] does not panic; the remaining handlers of a
    worker process - RetractTasks, CancelTasks, the end of a task future, timers. *)
From HQ Require Import Base.Prelude Cluster.Types Cluster.Core Cluster.Reactor Cluster.Worker Cluster.Server Cluster.Sys Cluster.ProofsMore Cluster.ProofsWorker Cluster.NoPanicU0 Cluster.NoPanicU1 Cluster.NoPanicU2.
From HQ Require Import Cluster.ModelFacts.
From Coq Require Import ZArith Lia Sorting.Sorted.
Local Open Scope N_scope.

(** Frame: what the loops never touch. *)
Definition FR (q q' : wproc) : Prop :=
  p_up q' = p_up q /\ p_down q' = p_down q /\ p_rqs q' = p_rqs q /\ p_id q' = p_id q.
Lemma FR_refl q : FR q q.
Proof. repeat split. Qed.
Lemma FR_trans a b c : FR a b -> FR b c -> FR a c.
Proof. intros (A1 & A2 & A3 & A4) (B1 & B2 & B3 & B4). repeat split; congruence. Qed.


Definition rr (x : tid) (out : list tid) : list uitem := flat_map (fun z => sel z x IRR) out.
Definition dret (x : tid) (ids : list tid) : list ditem := flat_map (fun z => sel z x IDRet) ids.

Lemma rr_app x a b : rr x (a ++ b) = rr x a ++ rr x b.
Proof. apply flat_map_app. Qed.
Lemma rr_repeat x out : rr x out = repeat IRR (length (rr x out)).
Proof.
  induction out as [|h r IH]; [reflexivity|]. unfold rr in *. cbn [flat_map]. unfold sel at 1 3.
  destruct (tid_eqb h x); cbn [app length repeat]; [f_equal|]; exact IH.
Qed.
Lemma rr_pos x out : (0 < length (rr x out))%nat -> In x out.
Proof.
  induction out as [|h r IH]; cbn; [lia|]. unfold sel. destruct (tid_eqb h x) eqn:E; [apply tid_eqb_eq in E; auto|].
  cbn [app]. intros H. right. apply IH. exact H.
Qed.
Lemma rr_in x out : In x out -> (0 < length (rr x out))%nat.
Proof.
  induction out as [|h r IH]; intros Hx; [destruct Hx|]. unfold rr in *. cbn [flat_map]. rewrite app_length.
  destruct Hx as [->|Hx]; [rewrite sel_same; cbn; lia | specialize (IH Hx); lia].
Qed.
Lemma dret_mem x ids : tid_mem x ids = false -> dret x ids = [].
Proof.
  induction ids as [|h r IH]; cbn [tid_mem]; [reflexivity|]. intros H. apply orb_false_iff in H. destruct H as [H1 H2].
  unfold dret in *. cbn [flat_map]. unfold sel at 1. rewrite tid_eqb_sym, H1. cbn [app]. apply IH. exact H2.
Qed.
Lemma dret_mem_true x ids : tid_mem x ids = true -> exists more, dret x ids = IDRet :: more.
Proof.
  induction ids as [|h r IH]; cbn [tid_mem]; [discriminate|]. unfold dret in *. cbn [flat_map]. unfold sel at 1.
  rewrite (tid_eqb_sym h x). destruct (tid_eqb x h); cbn [orb app]; [intros _; eexists; reflexivity | exact IH].
Qed.

Lemma tid_mem_eq x y ids : x = y -> tid_mem x ids = tid_mem y ids.
Proof. intros ->. reflexivity. Qed.

Lemma rr_gone x ids ts :
  length (rr x (map wt_id (filter (fun t => tid_mem (wt_id t) ids) ts))) = if tid_mem x ids then cnt x ts else O.
Proof.
  induction ts as [|h r IH]; [destruct (tid_mem x ids); reflexivity|]. cbn [filter].
  unfold cnt in *. cbn [filter].
  destruct (tid_eqb (wt_id h) x) eqn:E.
  - apply tid_eqb_eq in E. rewrite (tid_mem_eq _ _ ids E). destruct (tid_mem x ids) eqn:M.
    + cbn [map]. unfold rr in *. cbn [flat_map]. unfold sel at 1. rewrite E, tid_eqb_refl. cbn [app length]. rewrite IH. reflexivity.
    + exact IH.
  - destruct (tid_mem (wt_id h) ids); [|exact IH].
    cbn [map]. unfold rr in *. cbn [flat_map]. unfold sel at 1. rewrite E. cbn [app]. exact IH.
Qed.
Lemma cnt_keep x ids ts :
  cnt x (filter (fun t => negb (tid_mem (wt_id t) ids)) ts) = if tid_mem x ids then O else cnt x ts.
Proof.
  unfold cnt. induction ts as [|h r IH]; [destruct (tid_mem x ids); reflexivity|]. cbn [filter].
  destruct (tid_eqb (wt_id h) x) eqn:E.
  - apply tid_eqb_eq in E. rewrite (tid_mem_eq _ _ ids E). destruct (tid_mem x ids) eqn:M; cbn [negb].
    + exact IH.
    + cbn [filter]. rewrite (proj2 (tid_eqb_eq _ _) E). cbn [length]. rewrite IH. reflexivity.
  - destruct (negb (tid_mem (wt_id h) ids)); [cbn [filter]; rewrite E|]; exact IH.
Qed.

Lemma bl_has_false b rq : bl_has b rq = false -> bl_get b rq = [].
Proof.
  induction b as [|[k v] r IH]; cbn [bl_has bl_get]; [reflexivity|]. destruct (N.eqb rq k); [discriminate | exact IH].
Qed.

Lemma retract_from_cons order : forall b ids out b' out',
  retract_from b order ids out = (b', out') -> StronglySorted N.lt (map fst b) ->
  forall x, (bl_count x b' + length (rr x out') = bl_count x b + length (rr x out))%nat
            /\ (tid_mem x ids = false -> bl_count x b' = bl_count x b).
Proof.
  induction order as [|rq r IH]; cbn [retract_from]; intros b ids out b' out' H Hs x; [inversion H; subst; auto|].
  set (ts := bl_get b rq) in *.
  set (keep := filter (fun t => negb (tid_mem (wt_id t) ids)) ts) in *.
  set (gone := map wt_id (filter (fun t => tid_mem (wt_id t) ids) ts)) in *.
  destruct (bl_has b rq) eqn:Eh.
  - destruct (IH _ _ _ _ _ H (bl_set_sorted _ _ _ Hs) x) as [I1 I2].
    pose proof (bl_count_set x b rq keep Hs) as Hc. fold ts in Hc.
    rewrite rr_app, app_length in I1. unfold gone in I1. rewrite rr_gone in I1. unfold keep in Hc. rewrite cnt_keep in Hc.
    fold keep in Hc, I1, I2. destruct (tid_mem x ids); split; intros; try discriminate; try (rewrite I2 by reflexivity); lia.
  - destruct (IH _ _ _ _ _ H Hs x) as [I1 I2]. unfold gone, ts in I1. rewrite (bl_has_false _ _ Eh) in I1. cbn in I1.
    rewrite app_nil_r in I1. auto.
Qed.

Lemma bl_tids_in x b : In x (bl_tids b) -> exists k v y, In (k, v) b /\ In y v /\ wt_id y = x.
Proof.
  unfold bl_tids. rewrite in_flat_map. intros ([k v] & Hin & Hx). cbn in Hx. apply in_map_iff in Hx.
  destruct Hx as (y & Hy & Hiny). eauto 6.
Qed.

Lemma retract_from_zero order b ids out b' out' x :
  retract_from b order ids out = (b', out') -> StronglySorted N.lt (map fst b) ->
  (forall k, In k (map fst b) -> In k order) -> tid_mem x ids = true -> bl_count x b' = O.
Proof.
  intros H Hs Hall Hm. destruct (bl_count x b') eqn:E; [reflexivity|]. exfalso.
  assert (Hpos : (0 < bl_count x b')%nat) by lia. apply bl_count_pos in Hpos.
  destruct (bl_tids_in _ _ Hpos) as (k & v & y & Hin & Hy & Hid).
  destruct (retract_from_sorted _ _ _ _ _ _ H Hs) as [Hs' Hk].
  assert (Hget : bl_get b' k = v) by (apply bl_get_unique; [apply sorted_nodup; exact Hs' | exact Hin]).
  assert (Hord : In k order) by (apply Hall, Hk; apply (in_map fst) in Hin; exact Hin).
  rewrite <- Hget in Hy. pose proof (retract_removes _ _ _ _ _ _ _ _ H Hord Hy) as Hf. rewrite Hid in Hf. congruence.
Qed.

Lemma retract_from_nil order : forall b out b' out', retract_from b order [] out = (b', out') -> out' = out.
Proof.
  induction order as [|rq r IH]; cbn [retract_from]; intros b out b' out' H; [inversion H; reflexivity|].
  assert (E : forall l : list wtask, map wt_id (filter (fun t : wtask => tid_mem (wt_id t) []) l) = []).
  { clear. induction l as [|h l IHl]; [reflexivity | exact IHl]. }
  rewrite E, app_nil_r in H. eapply IH; exact H.
Qed.


Section Worker.
Variable s : sys.          (* the core and the job layer do not change *)
Variable w : wid.
Variable S : tid -> Prop.  (* the ids allowed to occur *)

Definition vw (x : tid) (t : task) : view := view_of (t_state t) w (job_running (s_hq s) x).

(** [q] = process, [ups] = updates collected so far (not yet sent), [dx] = the D word of every task. *)
Definition WOK (q : wproc) (ups : list wupdate) (dx : tid -> list ditem) : Prop :=
  forall x t, find_task (c_tasks (s_core s)) x = Some t ->
    lang (vw x t) (uitems x (p_up q) ++ flat_map (uitem_of x) ups) (local q x) (dx x) = true.

Definition SRC (q : wproc) (ups : list wupdate) : Prop :=
  forall x, In x (bl_tids (p_backlog q)) \/ In x (map fst (p_running q)) \/ In x (flat_map wupdate_tids ups) -> S x.

Lemma WOK_upd q ups dx q' ups' dx' y :
  WOK q ups dx -> p_up q' = p_up q ->
  (forall x, x <> y -> local q' x = local q x /\ flat_map (uitem_of x) ups' = flat_map (uitem_of x) ups /\ dx' x = dx x) ->
  (forall t, find_task (c_tasks (s_core s)) y = Some t ->
     lang (vw y t) (uitems y (p_up q) ++ flat_map (uitem_of y) ups) (local q y) (dx y) = true ->
     lang (vw y t) (uitems y (p_up q) ++ flat_map (uitem_of y) ups') (local q' y) (dx' y) = true) ->
  WOK q' ups' dx'.
Proof.
  intros H Eu Ho Hy x t Ht. rewrite Eu. destruct (tid_eqb x y) eqn:E.
  - apply tid_eqb_eq in E. subst x. apply Hy; [exact Ht | apply H; exact Ht].
  - apply tid_eqb_neq in E. destruct (Ho x E) as (E1 & E2 & E3). rewrite E1, E2, E3. apply H. exact Ht.
Qed.

Lemma try_start_eff q t rv pre alloc q1 u l st : try_start_task q t rv pre alloc = (q1, u, l, st) ->
  FR q q1 /\ p_backlog q1 = p_backlog q /\ p_blocked q1 = p_blocked q /\ p_free q1 = p_free q /\
  ((st = true /\ u = [if pre then URunningPrefilled (wt_id t) rv else URunning (wt_id t) rv]
    /\ p_running q1 = run_set (p_running q) (wt_id t) rv
    /\ p_alloc q1 = al_set (p_alloc q) (wt_id t) (wt_rq t :: alloc)
    /\ p_futures q1 = fu_set (p_futures q) (wt_id t) None)
   \/ (st = false /\ u = [UFailed (wt_id t) FLaunch] /\ p_running q1 = p_running q /\ p_alloc q1 = p_alloc q
       /\ p_futures q1 = p_futures q)).
Proof.
  unfold try_start_task. destruct (tid_mem (wt_id t) (p_failnext q)); intros H; injection H as <- <- <- <-.
  - repeat split. right. repeat split.
  - repeat split. left. repeat split.
Qed.

Lemma al_set_in l t v kv : In kv (al_set l t v) -> kv = (t, v) \/ In kv l.
Proof.
  induction l as [|[k v0] r IH]; cbn [al_set In]; [intros [H|[]]; auto|].
  destruct (tid_eqb t k); cbn [In]; [intros [H|H]; auto|].
  destruct (tid_ltb t k); cbn [In]; [intros [H|[H|H]]; auto|].
  intros [H|H]; [auto|]. destruct (IH H); auto.
Qed.

Lemma try_start_LOK q t rv pre alloc q1 u l st : try_start_task q t rv pre alloc = (q1, u, l, st) -> LOK q -> LOK q1.
Proof.
  intros H HL. destruct (try_start_eff _ _ _ _ _ _ _ _ _ H) as (_ & Eb & _ & _ & [(_ & _ & Er & Ea & Ef)|(_ & _ & Er & Ea & Ef)]);
    [|exact (LOK_eq q q1 Er Eb Ef Ea HL)].
  destruct HL as [L1 L2 L3 L4 L5]. constructor.
  - rewrite Er, run_set_keys. apply kset_sorted. exact L1.
  - rewrite Er, Ef, run_set_keys, fu_set_keys, L2. reflexivity.
  - rewrite Er, Ea, run_set_keys, al_set_keys, L3. reflexivity.
  - rewrite Ea. intros kv Hkv. destruct (al_set_in _ _ _ _ Hkv) as [->|Hin]; [cbn; discriminate | apply L4; exact Hin].
  - rewrite Eb. exact L5.
Qed.

Lemma run_set_in_keys l t v x : In x (map fst (run_set l t v)) -> x = t \/ In x (map fst l).
Proof. rewrite run_set_keys. apply kset_in. Qed.

Lemma try_start_local q t rv pre alloc q1 u l st : try_start_task q t rv pre alloc = (q1, u, l, st) ->
  (forall x, x <> wt_id t -> local q1 x = local q x /\ flat_map (uitem_of x) u = []) /\
  (local q (wt_id t) = LNone ->
   local q1 (wt_id t) = (if st then LRun rv else LNone) /\
   flat_map (uitem_of (wt_id t)) u = [if st then IRun pre rv else IFail FLaunch]).
Proof.
  intros H. destruct (try_start_eff _ _ _ _ _ _ _ _ _ H) as (_ & Eb & _ & _ & Hcase). set (y := wt_id t) in *. split.
  - intros x Hx. assert (Ex : tid_eqb x y = false) by (apply tid_eqb_neq; exact Hx).
    assert (Hs : forall i : uitem, sel y x i = []) by (intros i; apply sel_other; congruence).
    unfold local. rewrite Eb. destruct Hcase as [(_ & -> & -> & _)|(_ & -> & -> & _)].
    + rewrite run_find_set, Ex. split; [reflexivity|]. destruct pre; cbn [flat_map uitem_of]; rewrite Hs; reflexivity.
    + split; [reflexivity|]. cbn [flat_map uitem_of]. rewrite Hs. reflexivity.
  - intros E. destruct (local_cases q y) as [(_ & E2 & E3)|[(X & _)|[(rv0 & X & _)|X]]]; try congruence.
    unfold local. rewrite Eb, E3. destruct Hcase as [(-> & -> & -> & _)|(-> & -> & -> & _)].
    + rewrite run_find_set, tid_eqb_refl. split; [reflexivity|]. destruct pre; cbn [flat_map uitem_of]; rewrite sel_same; reflexivity.
    + rewrite E2. split; [reflexivity|]. cbn [flat_map uitem_of]. rewrite sel_same. reflexivity.
Qed.

(** The state after a start attempt of [t], made in a state [q0] where [y = wt_id t] is neither queued
    nor running.  [q] is the state in which the words were last known to be in their languages;
    between [q] and [q0] only [y] has moved.  Both outcomes of the attempt must be in the language
    of [y]. *)
Lemma try_start_inv q ups dx q0 t rv pre alloc q1 u l st dx' :
  try_start_task q0 t rv pre alloc = (q1, u, l, st) ->
  WOK q ups dx -> FR q q0 -> LOK q0 -> SRC q0 ups -> S (wt_id t) ->
  (forall x, x <> wt_id t -> local q0 x = local q x /\ dx' x = dx x) ->
  (forall ty U, find_task (c_tasks (s_core s)) (wt_id t) = Some ty ->
     U = uitems (wt_id t) (p_up q) ++ flat_map (uitem_of (wt_id t)) ups ->
     lang (vw (wt_id t) ty) U (local q (wt_id t)) (dx (wt_id t)) = true ->
     local q0 (wt_id t) = LNone
     /\ lang (vw (wt_id t) ty) (U ++ [IRun pre rv]) (LRun rv) (dx' (wt_id t)) = true
     /\ lang (vw (wt_id t) ty) (U ++ [IFail FLaunch]) LNone (dx' (wt_id t)) = true) ->
  WOK q1 (ups ++ u) dx' /\ LOK q1 /\ SRC q1 (ups ++ u) /\ FR q q1.
Proof.
  intros H HW F0 HL HS Hy Ho Hl. destruct (try_start_local _ _ _ _ _ _ _ _ _ H) as [Lo Ly].
  destruct (try_start_eff _ _ _ _ _ _ _ _ _ H) as (F01 & Eb & _ & _ & Hcase).
  pose proof (FR_trans _ _ _ F0 F01) as F1.
  split; [|split; [|split; [|exact F1]]].
  - apply (WOK_upd q ups dx q1 (ups ++ u) dx' (wt_id t)); [exact HW | apply F1 | |].
    + intros x Hx. destruct (Lo x Hx) as [E1 E2]. destruct (Ho x Hx) as [E3 E4].
      split; [congruence|]. split; [|exact E4]. rewrite flat_map_app, E2, app_nil_r. reflexivity.
    + intros ty Hty Hw. destruct (Hl ty _ Hty eq_refl Hw) as (E0 & P1 & P2). destruct (Ly E0) as [E1 E2].
      rewrite flat_map_app, app_assoc, E1, E2. destruct st; assumption.
  - eapply try_start_LOK; eassumption.
  - intros x [Hx|[Hx|Hx]].
    + apply HS. left. rewrite <- Eb. exact Hx.
    + destruct Hcase as [(_ & _ & Er & _)|(_ & _ & Er & _)]; rewrite Er in Hx; [|apply HS; right; left; exact Hx].
      destruct (run_set_in_keys _ _ _ _ Hx) as [->|Hx']; [exact Hy | apply HS; right; left; exact Hx'].
    + rewrite flat_map_app, in_app_iff in Hx. destruct Hx as [Hx|Hx]; [apply HS; right; right; exact Hx|].
      destruct Hcase as [(_ & -> & _)|(_ & -> & _)]; [destruct pre|]; cbn in Hx; destruct Hx as [<-|[]]; exact Hy.
Qed.

Lemma prefill_loop_inv fuel : forall q rq rv alloc ups ls q' ups' ls' used dx,
  prefill_loop fuel q rq rv alloc ups ls = (q', ups', ls', used) ->
  WOK q ups dx -> LOK q -> SRC q ups ->
  WOK q' ups' dx /\ LOK q' /\ SRC q' ups' /\ FR q q'.
Proof.
  assert (Hfree : forall q f ups dx, WOK q ups dx -> LOK q -> SRC q ups ->
            WOK (wp_free q f) ups dx /\ LOK (wp_free q f) /\ SRC (wp_free q f) ups /\ FR q (wp_free q f)).
  { intros q f ups dx H1 H2 H3. split; [exact H1|]. split; [now apply (LOK_eq q)|].
    split; [exact H3 | repeat split]. }
  induction fuel as [|k IH]; cbn [prefill_loop]; intros q rq rv alloc ups ls q' ups' ls' used dx H HW HL HS.
  - inversion H; subst. apply Hfree; assumption.
  - destruct (pop_last (bl_get (p_backlog q) rq)) as [[t rest]|] eqn:Ep; [|inversion H; subst; apply Hfree; assumption].
    destruct (bl_has (p_backlog q) rq); [|inversion H; subst; apply Hfree; assumption].
    pose proof (pop_last_snoc _ _ _ Ep) as Eg.
    set (q0 := wp_backlog q (bl_set (p_backlog q) rq rest)) in *.
    destruct (try_start_task q0 t rv true alloc) as [[[q1 u] l] st] eqn:Et.
    set (y := wt_id t) in *.
    (* [q0] is [q] with one occurrence of [y] taken from the backlog *)
    assert (Hcnt : forall x, (bl_count x (p_backlog q0) + (if tid_eqb y x then 1 else 0) = bl_count x (p_backlog q))%nat).
    { intros x. pose proof (bl_count_set x (p_backlog q) rq rest (lok_bl _ HL)) as Hc. rewrite Eg, cnt_app, cnt_one in Hc.
      fold y in Hc. cbn [q0 p_backlog wp_backlog wp_upd]. clear - Hc. destruct (tid_eqb y x); lia. }
    assert (Hin : forall z, In z (rest ++ [t]) -> In (wt_id z) (bl_tids (p_backlog q))).
    { intros z Hz. apply (bl_get_tids _ rq z). rewrite Eg. exact Hz. }
    destruct (try_start_inv q ups dx q0 t rv true alloc q1 u l st dx Et HW) as (A1 & A2 & A3 & A4).
    + repeat split.
    + apply (LOK_bl q); try reflexivity; [|exact HL]. apply bl_set_sorted, lok_bl. exact HL.
    + intros x [Hx|Hx]; apply HS; [left | right; exact Hx].
      destruct (bl_set_tids _ _ _ _ Hx) as [Hr|Hr]; [|exact Hr].
      apply in_map_iff in Hr. destruct Hr as (z & <- & Hz). apply Hin, in_or_app. left. exact Hz.
    + apply HS. left. apply Hin, in_or_app. right. left. reflexivity.
    + intros x Hx. split; [|reflexivity]. assert (Ex : tid_eqb y x = false) by (apply tid_eqb_neq; unfold y; congruence).
      specialize (Hcnt x). rewrite Ex, Nat.add_0_r in Hcnt. unfold local. rewrite <- Hcnt. reflexivity.
    + (* [y] was in the backlog once, and is nowhere now *)
      intros ty U Hty -> Hl. fold y in Hl |- *. specialize (Hcnt y). rewrite tid_eqb_refl in Hcnt.
      destruct (local_cases q y) as [(_ & _ & E3)|[(E1 & E2 & E3)|[(rv0 & _ & _ & E3)|E1]]];
        [exfalso; clear - Hcnt E3; lia | | exfalso; clear - Hcnt E3; lia | rewrite E1, LW_bad in Hl; discriminate].
      rewrite E1 in Hl. destruct (LW_pstart _ _ _ Hl) as [P1 P2]. split; [|split; [apply P1 | apply P2]].
      unfold local. change (p_running q0) with (p_running q). rewrite E2.
      replace (bl_count y (p_backlog q0)) with O by (clear - Hcnt E3; lia). reflexivity.
    + destruct st; [inversion H; subst; auto|].
      destruct (IH _ _ _ _ _ _ _ _ _ _ dx H A1 A2 A3) as (B1 & B2 & B3 & B4).
      split; [exact B1|]. split; [exact B2|]. split; [exact B3|]. eapply FR_trans; eassumption.
Qed.

Definition entry (x : tid) (ct : ctask) : list ditem := sel (ct_id ct) x (IDC (ct_rv ct) (negb (is_nil (ct_nodes ct)))).

Lemma res_fits_zero ask : forall have, forallb (N.eqb 0) ask = true -> res_fits have ask = true.
Proof.
  induction ask as [|a r IH]; intros have H; [destruct have; reflexivity|].
  cbn [forallb] in H. apply andb_true_iff in H. destruct H as [H1 H2]. apply N.eqb_eq in H1. subst a.
  destruct have as [|h ht]; cbn [res_fits]; rewrite IH by exact H2; [reflexivity|]. rewrite andb_true_r. apply N.leb_le. lia.
Qed.

Lemma compute_loop_inv ts : forall q ups ls dr,
  WOK q ups (fun x => flat_map (entry x) ts ++ dr x) -> LOK q -> SRC q ups ->
  (forall ct, In ct ts -> S (ct_id ct)) ->
  (forall ct, In ct ts -> ct_ok (c_rqs (s_core s)) (N.of_nat (length (p_rqs q))) ct = true) ->
  (forall i r, nth_error (p_rqs q) i = Some r -> nth_error (c_rqs (s_core s)) i = Some r) ->
  exists q' ups' ls', compute_loop q ts ups ls = Ok (q', ups', ls') /\ WOK q' ups' dr /\ LOK q' /\ SRC q' ups' /\ FR q q'.
Proof.
  induction ts as [|ct r IH]; intros q ups ls dr HW HL HS HSt Hct Hpre.
  - exists q, ups, ls. cbn [compute_loop]. split; [reflexivity|]. split; [exact HW|]. split; [exact HL|]. split; [exact HS | apply FR_refl].
  - cbn [compute_loop]. set (t := mkWT (ct_id ct) (ct_inst ct) (ct_rq ct) (ct_tlim ct) (ct_nodes ct)). set (y := ct_id ct) in *.
    pose proof (Hct ct (or_introl eq_refl)) as Hok. unfold ct_ok in Hok. apply andb_true_iff in Hok. destruct Hok as [Hok1 Hok2].
    assert (Hy : S y) by (apply HSt; left; reflexivity).
    (* the rest of the list is handled from any state reached by the first entry *)
    assert (Hnext : forall q1 ups1 ls1, WOK q1 ups1 (fun x => flat_map (entry x) r ++ dr x) -> LOK q1 -> SRC q1 ups1 -> FR q q1 ->
              exists q' ups' ls', compute_loop q1 r ups1 ls1 = Ok (q', ups', ls') /\ WOK q' ups' dr /\ LOK q' /\ SRC q' ups' /\ FR q q').
    { intros q1 ups1 ls1 A1 A2 A3 A4. assert (Hrq : p_rqs q1 = p_rqs q) by (destruct A4 as (_ & _ & E & _); exact E).
      destruct (IH q1 ups1 ls1 dr A1 A2 A3) as (q' & ups' & ls' & E & B1 & B2 & B3 & B4).
      - intros ct0 H0. apply HSt. right. exact H0.
      - intros ct0 H0. rewrite Hrq. apply Hct. right. exact H0.
      - rewrite Hrq. exact Hpre.
      - exists q', ups', ls'. split; [exact E|]. split; [exact B1|]. split; [exact B2|]. split; [exact B3|]. eapply FR_trans; eassumption. }
    assert (Hdx : forall x, x <> y -> flat_map (entry x) r ++ dr x = flat_map (entry x) (ct :: r) ++ dr x).
    { intros x Hx. cbn [flat_map]. unfold entry at 2. fold y. rewrite sel_other by congruence. reflexivity. }
    assert (Hdy : flat_map (entry y) (ct :: r) ++ dr y = IDC (ct_rv ct) (negb (is_nil (ct_nodes ct))) :: (flat_map (entry y) r ++ dr y)).
    { cbn [flat_map]. unfold entry at 1. fold y. rewrite sel_same. reflexivity. }
    destruct (ct_rv ct) as [rv|] eqn:Erv.
    + (* an assigned task *)
      apply andb_true_iff in Hok1. destruct Hok1 as [Hrv Hlt]. apply N.eqb_eq in Hrv. subst rv. apply N.ltb_lt in Hlt.
      unfold p_get_rq. destruct (nth_error (p_rqs q) (N.to_nat (ct_rq ct))) as [rq|] eqn:Erq;
        [|exfalso; apply nth_error_None in Erq; clear - Erq Hlt; lia].
      cbn [bind]. cbn [N.eqb negb].
      destruct (res_fits (p_free q) (rq_res rq)) eqn:Efit.
      * set (q0 := wp_free q (res_sub (p_free q) (rq_res rq))).
        destruct (try_start_task q0 t 0 false (rq_res rq)) as [[[q1 u] l] st] eqn:Et.
        destruct (try_start_inv q ups _ q0 t 0 false (rq_res rq) q1 u l st (fun x => flat_map (entry x) r ++ dr x) Et HW)
          as (A1 & A2 & A3 & A4).
        -- repeat split.
        -- now apply (LOK_eq q).
        -- exact HS.
        -- exact Hy.
        -- intros x Hx. split; [reflexivity | apply Hdx; exact Hx].
        -- intros ty U Hty -> Hl. cbv beta in Hl |- *. change (wt_id t) with y in *. rewrite Hdy in Hl.
           destruct (LW_dc _ _ _ _ _ _ Hl) as (E1 & P1 & P2 & _). split; [exact E1|]. split; [exact P1 | apply P2].
        -- destruct st; [apply Hnext; assumption|].
           destruct (prefill_loop (Datatypes.S (backlog_size q1)) q1 (ct_rq ct) 0 (rq_res rq) (ups ++ u) (ls ++ l)) as [[[q2 u2] l2] used] eqn:Epl.
           destruct (prefill_loop_inv _ _ _ _ _ _ _ _ _ _ _ _ Epl A1 A2 A3) as (C1 & C2 & C3 & C4).
           apply Hnext; try assumption. eapply FR_trans; eassumption.
      * (* rejected *)
        set (b := if nn_mem (ct_rq ct, 0) (p_blocked q) then p_blocked q else nn_insert (ct_rq ct, 0) (p_blocked q)).
        apply Hnext.
        -- eapply (WOK_upd q ups _ _ _ _ y); [exact HW | reflexivity | |].
           ++ intros x Hx. split; [reflexivity|]. split; [|cbv beta; apply Hdx; exact Hx].
              rewrite flat_map_app. cbn [flat_map uitem_of]. rewrite sel_other by congruence. rewrite app_nil_r. reflexivity.
           ++ intros ty Hty Hl. cbv beta in Hl |- *. rewrite Hdy in Hl. destruct (LW_dc _ _ _ _ _ _ Hl) as (E1 & _ & _ & [(Emn & _)|(_ & P3)]).
              ** (* a class without amounts always fits *)
                 exfalso. apply negb_true_iff in Emn. rewrite Emn in Hok2. cbn [orb] in Hok2.
                 rewrite (Hpre _ _ Erq) in Hok2. unfold zero_res in Hok2. rewrite (res_fits_zero _ _ Hok2) in Efit. discriminate.
              ** rewrite flat_map_app, app_assoc. cbn [flat_map uitem_of]. rewrite sel_same. cbn [app].
                 change (local (wp_blocked q b) y) with (local q y). rewrite E1. exact P3.
        -- now apply (LOK_eq q).
        -- intros x Hx. destruct Hx as [Hx|[Hx|Hx]]; [apply HS; left; exact Hx | apply HS; right; left; exact Hx|].
           rewrite flat_map_app, in_app_iff in Hx. destruct Hx as [Hx|Hx]; [apply HS; right; right; exact Hx|].
           cbn in Hx. destruct Hx as [<-|[]]. exact Hy.
        -- repeat split.
    + (* a prefilled task goes to the backlog *)
      set (b1 := bl_set (p_backlog q) (ct_rq ct) (bl_get (p_backlog q) (ct_rq ct) ++ [t])).
      assert (Hcnt : forall x, bl_count x b1 = (bl_count x (p_backlog q) + (if tid_eqb y x then 1 else 0))%nat).
      { intros x. pose proof (bl_count_set x (p_backlog q) (ct_rq ct) (bl_get (p_backlog q) (ct_rq ct) ++ [t]) (lok_bl _ HL)) as Hc.
        rewrite cnt_app, cnt_one in Hc. cbn [t wt_id] in Hc. fold y in Hc. fold b1 in Hc. clear - Hc. lia. }
      apply Hnext.
      * eapply (WOK_upd q ups _ _ _ _ y); [exact HW | reflexivity | |].
        -- intros x Hx. split; [|split; [reflexivity | cbv beta; apply Hdx; exact Hx]].
           unfold local. cbn [p_running p_backlog wp_backlog wp_upd]. rewrite Hcnt.
           assert (Ex : tid_eqb y x = false) by (apply tid_eqb_neq; congruence). rewrite Ex, Nat.add_0_r. reflexivity.
        -- intros ty Hty Hl. cbv beta in Hl |- *. rewrite Hdy in Hl. destruct (LW_dc_pre _ _ _ _ _ Hl) as (E1 & P1).
           destruct (local_cases q y) as [(_ & E2 & E3)|[(X & _)|[(rv0 & X & _)|X]]]; try congruence.
           replace (local (wp_backlog q b1) y) with LBack; [exact P1|].
           unfold local. cbn [p_running p_backlog wp_backlog wp_upd]. rewrite Hcnt, E2, E3, tid_eqb_refl. reflexivity.
      * apply (LOK_bl q); try reflexivity; [|exact HL]. apply bl_set_sorted, lok_bl. exact HL.
      * intros x Hx. destruct Hx as [Hx|[Hx|Hx]]; [|apply HS; right; left; exact Hx | apply HS; right; right; exact Hx].
        cbn [p_backlog wp_backlog wp_upd] in Hx. destruct (bl_set_tids _ _ _ _ Hx) as [Hr|Hr]; [|apply HS; left; exact Hr].
        rewrite map_app, in_app_iff in Hr. destruct Hr as [Hr|Hr].
        -- apply HS. left. apply in_map_iff in Hr. destruct Hr as (z & <- & Hz). eapply bl_get_tids; exact Hz.
        -- cbn in Hr. destruct Hr as [<-|[]]. exact Hy.
      * repeat split.
Qed.



(** The invariant of a process between two events. *)
Definition POK (q : wproc) (dx : tid -> list ditem) : Prop := WOK q [] dx /\ LOK q /\ SRC q [].

Lemma POK_eq q q' dx dx' :
  p_up q' = p_up q -> p_running q' = p_running q -> p_backlog q' = p_backlog q -> p_futures q' = p_futures q ->
  p_alloc q' = p_alloc q -> (forall x, dx' x = dx x) -> POK q dx -> POK q' dx'.
Proof.
  intros E1 E2 E3 E4 E5 Hdx (HW & HL & HS). split; [|split].
  - intros x t Ht. rewrite E1, Hdx, (local_eq q q' x E2 E3). exact (HW x t Ht).
  - exact (LOK_eq q q' E2 E3 E4 E5 HL).
  - intros x Hx. apply HS. rewrite <- E2, <- E3. exact Hx.
Qed.

Lemma POK_send q ups dx : WOK q ups dx -> LOK q -> SRC q ups ->
  let q' := match ups with [] => q | _ => send_up q (UUpdates ups) end in
  POK q' dx /\ (forall x, In x (flat_map umsg_tids (p_up q')) -> In x (flat_map umsg_tids (p_up q)) \/ S x)
  /\ p_down q' = p_down q /\ p_rqs q' = p_rqs q /\ p_id q' = p_id q.
Proof.
  intros HW HL HS. destruct ups as [|u0 ur] eqn:Eu.
  - cbn zeta. split; [split; [exact HW | split; [exact HL | exact HS]]|]. split; [auto | repeat split].
  - cbn zeta. rewrite <- Eu in *. clear Eu. split; [split; [|split]|].
    + intros x t Ht. cbn [send_up wp_up wp_upd p_up]. rewrite uitems_app. cbn [uitems flat_map uitems_msg]. rewrite !app_nil_r.
      exact (HW x t Ht).
    + now apply (LOK_eq q).
    + intros x [Hx|[Hx|[]]]; apply HS; auto.
    + split; [|repeat split]. intros x Hx. cbn [send_up wp_up wp_upd p_up] in Hx. rewrite flat_map_app, in_app_iff in Hx.
      destruct Hx as [Hx|Hx]; [left; exact Hx|]. cbn in Hx. rewrite app_nil_r in Hx. right. apply HS. right. right. exact Hx.
Qed.

Lemma retract_inv q ids order b out dr :
  POK q (fun x => dret x ids ++ dr x) ->
  n_perm order (map fst (p_backlog q)) = true ->
  retract_from (p_backlog q) order ids [] = (b, out) ->
  let q1 := wp_backlog q b in
  let q' := match ids with [] => q1 | _ => send_up q1 (URetractResponse out) end in
  POK q' dr /\ (forall x, In x (flat_map umsg_tids (p_up q')) -> In x (flat_map umsg_tids (p_up q)) \/ S x).
Proof.
  intros (HW & HL & HS) Hperm Hr q1 q'.
  pose proof (retract_from_cons _ _ _ _ _ _ Hr (lok_bl _ HL)) as Hc.
  assert (Hall : forall k, In k (map fst (p_backlog q)) -> In k order).
  { unfold n_perm in Hperm. apply andb_true_iff in Hperm. destruct Hperm as [_ Hp]. rewrite forallb_forall in Hp.
    intros k Hk. apply n_mem_In. apply Hp. exact Hk. }
  assert (Hup : forall x, uitems x (p_up q') = uitems x (p_up q) ++ rr x out).
  { intros x. unfold q'. destruct ids as [|i0 ir].
    - pose proof (retract_from_nil _ _ _ _ _ Hr) as Hout.
      subst out. cbn. rewrite app_nil_r. reflexivity.
    - cbn [send_up wp_up wp_upd p_up q1 wp_backlog]. rewrite uitems_app. cbn [uitems flat_map uitems_msg]. rewrite app_nil_r. reflexivity. }
  assert (Hloc : forall x, local q' x = match run_find (p_running q) x, bl_count x b with
                                        | None, O => LNone | None, Datatypes.S O => LBack | Some rv, O => LRun rv | _, _ => LBad end).
  { intros x. unfold q'. destruct ids; reflexivity. }
  split; [split; [|split]|].
  - intros x t Ht. cbn [flat_map]. rewrite app_nil_r. rewrite Hup.
    pose proof (HW x t Ht) as Hl. cbn [flat_map] in Hl. rewrite app_nil_r in Hl.
    destruct (Hc x) as [C1 C2]. cbn [rr flat_map length] in C1.
    destruct (tid_mem x ids) eqn:M.
    + destruct (dret_mem_true _ _ M) as (more & Em). rewrite Em in Hl. cbn [app] in Hl.
      pose proof (LW_ret_last _ _ _ _ Hl) as Enil. apply app_eq_nil in Enil. destruct Enil as [-> Edr]. rewrite Edr in *.
      pose proof (retract_from_zero _ _ _ _ _ _ x Hr (lok_bl _ HL) Hall M) as Z. rewrite Hloc, Z.
      rewrite (rr_repeat x out). replace (length (rr x out)) with (bl_count x (p_backlog q)) by (clear - C1 Z; lia).
      destruct (local_cases q x) as [(E1 & E2 & E3)|[(E1 & E2 & E3)|[(rv0 & E1 & E2 & E3)|E1]]]; rewrite E1 in Hl.
      * rewrite E2, E3. cbn [repeat]. rewrite app_nil_r. apply LW_ret_other; [exact Hl | discriminate].
      * rewrite E2, E3. cbn [repeat]. apply LW_ret_back. exact Hl.
      * rewrite E2, E3. cbn [repeat]. rewrite app_nil_r. apply LW_ret_other; [exact Hl | discriminate].
      * rewrite LW_bad in Hl. discriminate.
    + rewrite (dret_mem _ _ M) in Hl. cbn [app] in Hl. specialize (C2 eq_refl).
      rewrite (rr_repeat x out). replace (length (rr x out)) with O by (clear - C1 C2; lia). cbn [repeat]. rewrite app_nil_r.
      rewrite Hloc, C2. exact Hl.
  - destruct (retract_from_sorted _ _ _ _ _ _ Hr (lok_bl _ HL)) as [Hs' _].
    apply (LOK_bl q); [destruct ids; reflexivity .. | destruct ids; exact Hs' | exact HL].
  - assert (Hb : forall x, In x (bl_tids b) -> S x).
    { intros x Hx. apply HS. left. apply bl_count_pos. apply bl_count_pos in Hx. destruct (Hc x) as [C1 _]. cbn in C1. lia. }
    intros x Hx. unfold q' in Hx. destruct ids; cbn [send_up q1 wp_up wp_backlog wp_upd p_backlog p_running flat_map] in Hx;
      (destruct Hx as [Hx|[Hx|[]]]; [apply Hb; exact Hx | apply HS; right; left; exact Hx]).
  - assert (Ho : forall x, In x out -> S x).
    { intros x Hx. apply HS. left. apply bl_count_pos. destruct (Hc x) as [C1 _]. cbn [rr flat_map length] in C1.
      pose proof (rr_in x out Hx). lia. }
    intros x Hx. unfold q' in Hx. destruct ids; cbn [send_up q1 wp_up wp_backlog wp_upd p_up] in Hx; [left; exact Hx|].
    rewrite flat_map_app, in_app_iff in Hx. destruct Hx as [Hx|Hx]; [left; exact Hx|]. cbn in Hx. rewrite app_nil_r in Hx. right. apply Ho. exact Hx.
Qed.

Lemma kset_mem l t : StronglySorted tlt l -> In t l -> kset l t = l.
Proof.
  induction l as [|k r IH]; cbn [kset]; intros Hs Hin; [destruct Hin|].
  inversion Hs as [|? ? Hs' Hall]; subst. destruct (tid_eqb t k) eqn:E; [apply tid_eqb_eq in E; subst; reflexivity|].
  destruct Hin as [->|Hin]; [rewrite tid_eqb_refl in E; discriminate|].
  rewrite Forall_forall in Hall. pose proof (Hall _ Hin) as Hlt.
  destruct (tid_ltb t k) eqn:L; [exfalso; exact (tlt_irrefl _ (tlt_trans _ _ _ L Hlt))|]. rewrite IH by assumption. reflexivity.
Qed.

Lemma bl_count_filter x y b :
  bl_count x (map (fun kv => (fst kv, filter (fun z => negb (tid_eqb (wt_id z) y)) (snd kv))) b)
  = if tid_eqb x y then O else bl_count x b.
Proof.
  induction b as [|[k v] r IH]; [destruct (tid_eqb x y); reflexivity|]. cbn [map fst snd]. rewrite !bl_count_cons, IH.
  assert (E : cnt x (filter (fun z => negb (tid_eqb (wt_id z) y)) v) = if tid_eqb x y then O else cnt x v).
  { unfold cnt. clear. induction v as [|h t IH]; [destruct (tid_eqb x y); reflexivity|]. cbn [filter].
    destruct (tid_eqb (wt_id h) y) eqn:E1; cbn [negb].
    - destruct (tid_eqb (wt_id h) x) eqn:E2; [|exact IH]. apply tid_eqb_eq in E1, E2. subst. rewrite tid_eqb_refl in *. exact IH.
    - cbn [filter]. destruct (tid_eqb (wt_id h) x) eqn:E2; [|exact IH]. apply tid_eqb_eq in E2. subst x. rewrite E1 in *.
      cbn [length]. rewrite IH. reflexivity. }
  rewrite E. destruct (tid_eqb x y); reflexivity.
Qed.

Lemma fu_find_some_in l t v : fu_find l t = Some v -> In t (map fst l).
Proof.
  induction l as [|[k v0] r IH]; cbn [fu_find map fst In]; [discriminate|].
  destruct (tid_eqb t k) eqn:E; [apply tid_eqb_eq in E; auto | intros H; right; apply IH; exact H].
Qed.

Lemma LOK_stop q t v sk : LOK q -> fu_find (p_futures q) t = Some v -> LOK (wp_futures q (fu_set (p_futures q) t sk)).
Proof.
  intros HL Ef. apply (LOK_fut q); try reflexivity; [|exact HL]. cbn [wp_futures wp_upd p_futures]. rewrite fu_set_keys.
  apply kset_mem; [rewrite (lok_fut _ HL); exact (lok_sorted _ HL) | eapply fu_find_some_in; exact Ef].
Qed.

Lemma cancel_task_eff q y :
  let q' := cancel_task q y in
  p_up q' = p_up q /\ p_down q' = p_down q /\ p_rqs q' = p_rqs q /\ p_id q' = p_id q /\ p_running q' = p_running q /\
  p_alloc q' = p_alloc q /\
  (forall x, bl_count x (p_backlog q') = bl_count x (p_backlog q) \/ (x = y /\ bl_count x (p_backlog q') = O)) /\
  (LOK q -> LOK q').
Proof.
  unfold cancel_task. destruct (run_find (p_running q) y) as [rv|] eqn:Er.
  - destruct (fu_find (p_futures q) y) as [[sk|]|] eqn:Ef; cbn; do 6 (split; [reflexivity|]); (split; [intros x; left; reflexivity|]); try (intros HL; exact HL).
    intros HL. exact (LOK_stop q y _ _ HL Ef).
  - cbn [p_up p_down p_rqs p_id p_running p_alloc p_backlog p_futures wp_backlog wp_futures wp_upd]. do 6 (split; [reflexivity|]). split.
    + intros x. rewrite bl_count_filter. destruct (tid_eqb x y) eqn:E; [apply tid_eqb_eq in E; right; auto | left; reflexivity].
    + intros [L1 L2 L3 L4 L5]. constructor; cbn; try assumption. rewrite map_map. cbn. exact L5.
Qed.

Definition dcan (x : tid) (ids : list tid) : list ditem := flat_map (fun z => sel z x IDCan) ids.
Lemma dcan_notin x ids : ~ In x ids -> dcan x ids = [].
Proof.
  induction ids as [|h r IH]; [reflexivity|]. intros Hn. unfold dcan in *. cbn [flat_map]. rewrite sel_other; [|intros ->; apply Hn; left; reflexivity].
  apply IH. intros H. apply Hn. right. exact H.
Qed.
Lemma dcan_in x ids : In x ids -> exists more, dcan x ids = IDCan :: more.
Proof.
  induction ids as [|h r IH]; [intros []|]. unfold dcan in *. cbn [flat_map]. unfold sel at 1.
  destruct (tid_eqb h x) eqn:E; [intros _; eexists; reflexivity|]. intros [->|H]; [rewrite tid_eqb_refl in E; discriminate | exact (IH H)].
Qed.

Lemma cancel_inv ids : forall q dr,
  POK q (fun x => dcan x ids ++ dr x) ->
  let q' := fold_left cancel_task ids q in
  POK q' dr /\ p_up q' = p_up q /\ p_down q' = p_down q /\ p_rqs q' = p_rqs q /\ p_id q' = p_id q.
Proof.
  induction ids as [|y r IH]; intros q dr (HW & HL & HS); cbn [fold_left].
  - split; [split; [exact HW | split; assumption]|]. repeat split.
  - destruct (cancel_task_eff q y) as (E1 & E2 & E3 & E4 & E5 & E6 & Hb & Hlok).
    destruct (IH (cancel_task q y) dr) as (A & F1 & F2 & F3 & F4).
    + split; [|split; [apply Hlok; exact HL|]].
      * intros x t Ht. pose proof (HW x t Ht) as Hl. cbn [flat_map] in Hl |- *. rewrite app_nil_r in *. rewrite E1.
        unfold dcan in Hl. cbn [flat_map] in Hl. fold (dcan x r) in Hl. unfold sel at 1 in Hl.
        destruct (tid_eqb y x) eqn:E; [cbn [app] in Hl; exfalso; eapply LW_can; exact Hl|]. cbn [app] in Hl.
        replace (local (cancel_task q y) x) with (local q x); [exact Hl|]. unfold local. rewrite E5.
        destruct (Hb x) as [->|[-> _]]; [reflexivity | rewrite tid_eqb_refl in E; discriminate].
      * intros x [Hx|[Hx|[]]]; apply HS; [left | right; left; rewrite <- E5; exact Hx].
        apply bl_count_pos. apply bl_count_pos in Hx. destruct (Hb x) as [<-|[_ Z]]; [exact Hx | lia].
    + split; [exact A|]. repeat split; congruence.
Qed.

Lemma run_del_incl {V} (l : list (tid * V)) t kv : In kv (run_del l t) -> In kv l.
Proof.
  induction l as [|[k v] r IH]; cbn [run_del In]; [auto|]. destruct (tid_eqb t k); [auto|]. cbn [In]. intros [H|H]; auto.
Qed.

Lemma keys_find_run l x : In x (map fst l) -> exists v, run_find l x = Some v.
Proof. intros H. destruct (run_find l x) eqn:E; [eauto|]. apply run_find_none in E. contradiction. Qed.
Lemma keys_find_al l x : In x (map fst l) -> exists v, al_find l x = Some v.
Proof. intros H. destruct (al_find l x) eqn:E; [eauto|]. apply al_find_none in E. contradiction. Qed.

Lemma enable_items x (l : list (N * N)) : flat_map (uitem_of x) (map (fun b => UEnable (fst b) (snd b)) l) = [].
Proof. induction l as [|h r IH]; [reflexivity | exact IH]. Qed.
Lemma enable_tids (l : list (N * N)) : flat_map wupdate_tids (map (fun b => UEnable (fst b) (snd b)) l) = [].
Proof. induction l as [|h r IH]; [reflexivity | exact IH]. Qed.

(** The running task [t] leaves the three maps of [q]; [ups0] reports its end, or nothing (a cancelled task). *)
Lemma end_running_inv q t p0 ups0 dx :
  POK q dx -> In t (map fst (p_running q)) ->
  p_up p0 = p_up q -> p_backlog p0 = p_backlog q -> p_running p0 = run_del (p_running q) t ->
  p_alloc p0 = run_del (p_alloc q) t -> p_futures p0 = run_del (p_futures q) t ->
  ups0 = [] \/ ups0 = [UFinished t] \/ (exists k, ups0 = [UFailed t k]) ->
  WOK p0 ups0 dx /\ LOK p0 /\ SRC p0 ups0.
Proof.
  intros (HW & HL & HS) Hk Eu Eb Er Ea Ef Hups.
  assert (Hfind : forall x, run_find (p_running p0) x = if tid_eqb x t then None else run_find (p_running q) x).
  { intros x. rewrite Er. apply run_find_del, lok_sorted, HL. }
  split; [|split].
  - apply (WOK_upd q [] dx p0 ups0 dx t); [exact HW | exact Eu | |].
    + intros x Hx. assert (Ex : tid_eqb x t = false) by (apply tid_eqb_neq; exact Hx). split; [|split; [|reflexivity]].
      * unfold local. rewrite Hfind, Eb, Ex. reflexivity.
      * assert (Hs : forall i : uitem, sel t x i = []) by (intros; apply sel_other; congruence).
        destruct Hups as [->|[->|(k & ->)]]; cbn [flat_map uitem_of]; rewrite ?Hs; reflexivity.
    + intros ty Hty Hl. cbn [flat_map] in Hl. rewrite app_nil_r in Hl.
      (* [t] is in the running map, hence [LRun] *)
      destruct (local_cases q t) as [(_ & E2 & _)|[(_ & E2 & _)|[(rv0 & E1 & _ & E3)|E1]]];
        [apply run_find_none in E2; contradiction | apply run_find_none in E2; contradiction | | rewrite E1, LW_bad in Hl; discriminate].
      rewrite E1 in Hl. destruct (LW_end _ _ _ _ Hl) as (P1 & P2 & P3).
      replace (local p0 t) with LNone by (unfold local; rewrite Hfind, Eb, tid_eqb_refl, E3; reflexivity).
      destruct Hups as [->|[->|(k & ->)]]; cbn [flat_map uitem_of]; rewrite ?sel_same; cbn [app]; rewrite ?app_nil_r; auto.
  - destruct HL as [L1 L2 L3 L4 L5]. constructor.
    + rewrite Er, run_del_keys. apply kdel_sorted. exact L1.
    + rewrite Ef, Er, !run_del_keys, L2. reflexivity.
    + rewrite Ea, Er, !run_del_keys, L3. reflexivity.
    + rewrite Ea. intros kv Hkv. apply L4. eapply run_del_incl; exact Hkv.
    + rewrite Eb. exact L5.
  - intros x [Hx|[Hx|Hx]]; apply HS.
    + left. rewrite <- Eb. exact Hx.
    + right. left. rewrite Er, run_del_keys in Hx. eapply kdel_incl; exact Hx.
    + right. left. destruct Hups as [->|[->|(k & ->)]]; cbn in Hx; [destruct Hx | |]; destruct Hx as [<-|[]]; exact Hk.
Qed.

Lemma task_end_inv q t how dx :
  POK q dx -> fu_find (p_futures q) t <> None ->
  exists q' ls, task_end q t how = Ok (q', ls) /\ POK q' dx
    /\ (forall x, In x (flat_map umsg_tids (p_up q')) -> In x (flat_map umsg_tids (p_up q)) \/ S x)
    /\ p_down q' = p_down q /\ p_rqs q' = p_rqs q /\ p_id q' = p_id q.
Proof.
  intros HPOK Hf. pose proof HPOK as (_ & HL & _). unfold task_end.
  destruct (fu_find (p_futures q) t) as [stop|] eqn:Ef; [clear Hf|congruence].
  (* the three maps have the same keys: no panic *)
  pose proof (fu_find_some_in _ _ _ Ef) as Hk. rewrite (lok_fut _ HL) in Hk.
  destruct (keys_find_run _ _ Hk) as (rv & Er). rewrite Er.
  pose proof Hk as Hk2. rewrite <- (lok_al _ HL) in Hk2. destruct (keys_find_al _ _ Hk2) as (al & Ea). rewrite Ea.
  destruct al as [|rq alloc]; [exfalso; exact (lok_ne _ HL _ (al_find_in _ _ _ Ea) eq_refl)|].
  set (p0 := wp_upd q (p_backlog q) (run_del (p_running q) t) (run_del (p_alloc q) t) (p_blocked q) (p_free q)
                    (run_del (p_futures q) t) (tid_remove t (p_timers q)) (p_failnext q) (p_rqs q) (p_down q) (p_up q)).
  set (ups0 := match how with
               | EndOk => [UFinished t]
               | EndFail => [UFailed t FTask]
               | EndFollowStop => match stop with Some SCancel => [] | Some STimeout => [UFailed t FTimeLimit] | None => [UFinished t] end
               end).
  destruct (end_running_inv q t p0 ups0 dx HPOK Hk) as (A1 & A2 & A3); try reflexivity.
  { unfold ups0. destruct how; [| |destruct stop as [[|]|]]; eauto. }
  destruct (prefill_loop (Datatypes.S (backlog_size p0)) p0 rq rv alloc ups0 []) as [[[p1 ups1] ls] used] eqn:Epl.
  destruct (prefill_loop_inv _ _ _ _ _ _ _ _ _ _ _ dx Epl A1 A2 A3) as (B1 & B2 & B3 & (F1 & F2 & F3 & F4)).
  (* whatever is sent in the end *)
  assert (Hsend : forall p2 ups2, WOK p2 ups2 dx -> LOK p2 -> SRC p2 ups2 -> FR p1 p2 ->
            exists q' ls', match ups2 with [] => Ok (p2, ls) | _ :: _ => Ok (send_up p2 (UUpdates ups2), ls) end = Ok (q', ls')
              /\ POK q' dx /\ (forall x, In x (flat_map umsg_tids (p_up q')) -> In x (flat_map umsg_tids (p_up q)) \/ S x)
              /\ p_down q' = p_down q /\ p_rqs q' = p_rqs q /\ p_id q' = p_id q).
  { intros p2 ups2 C1 C2 C3 (G1 & G2 & G3 & G4). destruct (POK_send p2 ups2 dx C1 C2 C3) as (D1 & D2 & D3 & D4 & D5).
    exists (match ups2 with [] => p2 | _ => send_up p2 (UUpdates ups2) end), ls.
    split; [destruct ups2; reflexivity|]. split; [exact D1|]. split.
    - intros x Hx. destruct (D2 x Hx) as [H|H]; [left; rewrite G1, F1 in H; exact H | right; exact H].
    - repeat split; [rewrite D3, G2, F2 | rewrite D4, G3, F3 | rewrite D5, G4, F4]; reflexivity. }
  destruct used; cbn [negb]; apply Hsend; try assumption; [apply FR_refl | | | | repeat split].
  - intros x tx Hx. rewrite flat_map_app, enable_items, app_nil_r. exact (B1 x tx Hx).
  - now apply (LOK_eq p1).
  - intros x [Hx|[Hx|Hx]]; apply B3; auto. rewrite flat_map_app, enable_tids, app_nil_r in Hx. auto.
Qed.

Lemma timer_fire_eff q t :
  let q' := timer_fire q t in
  p_up q' = p_up q /\ p_down q' = p_down q /\ p_rqs q' = p_rqs q /\ p_id q' = p_id q /\ p_running q' = p_running q /\
  p_backlog q' = p_backlog q /\ (LOK q -> LOK q').
Proof.
  unfold timer_fire. cbn [p_futures wp_timers wp_upd].
  destruct (fu_find (p_futures q) t) as [[sk|]|] eqn:Ef; cbn; do 6 (split; [reflexivity|]);
    try (intros [L1 L2 L3 L4 L5]; constructor; cbn; assumption).
  intros HL. apply (LOK_stop (wp_timers q (tid_remove t (p_timers q))) t None); [now apply (LOK_eq q) | exact Ef].
Qed.

Lemma timers_eff l : forall q,
  let q' := fold_left timer_fire l q in
  p_up q' = p_up q /\ p_down q' = p_down q /\ p_rqs q' = p_rqs q /\ p_id q' = p_id q /\ p_running q' = p_running q /\
  p_backlog q' = p_backlog q /\ (LOK q -> LOK q').
Proof.
  induction l as [|t r IH]; intros q; cbn [fold_left]; [do 6 (split; [reflexivity|]); auto|].
  destruct (timer_fire_eff q t) as (E1 & E2 & E3 & E4 & E5 & E6 & E7).
  destruct (IH (timer_fire q t)) as (F1 & F2 & F3 & F4 & F5 & F6 & F7).
  do 6 (split; [congruence|]). auto.
Qed.

End Worker.
