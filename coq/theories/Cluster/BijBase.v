(** C02, second sentence: "the set of unfinished tasks shown to the user for a job is always exactly
    the set of tasks the scheduler knows about (no phantom and no orphan tasks)".

    This file: the vocabulary.  The core's task map is viewed through its KEYS
    [(task id, consumers)]; almost every reactor / scheduler function leaves the keys untouched
    (it changes states, instance ids, queues, workers), which is what makes the invariant tractable. *)
From HQ Require Import Base.Prelude Cluster.Types Cluster.Core Cluster.Reactor Cluster.Worker Cluster.Server Cluster.Sys Cluster.ProofsJob Cluster.ProofsMore.
From HQ Require Import Cluster.ModelFacts.
From Coq Require Import ZArith Lia Sorting.Sorted.
Require Import ZifyBool ZifyN.
Local Open Scope N_scope.

Arguments N.add : simpl never.
Arguments N.sub : simpl never.


Definition tid_dec (a b : tid) : {a = b} + {a <> b}.
Proof. decide equality; apply N.eq_dec. Defined.

Definition tlt (a b : tid) : Prop := tid_ltb a b = true.

Definition key (t : task) : tid * list tid := (t_id t, t_consumers t).
Definition keys (c : core) : list (tid * list tid) := map key (c_tasks c).
Definition KS (K : list (tid * list tid)) : Prop := StronglySorted tlt (map fst K).
(** Consumers belong to the job of the task they consume. *)
Definition KD (K : list (tid * list tid)) : Prop := forall id cs x, In (id, cs) K -> In x cs -> fst x = fst id.
Definition present (K : list (tid * list tid)) (t : tid) : Prop := In t (map fst K).

Lemma map_fst_keys ts : map fst (map key ts) = map t_id ts.
Proof. rewrite map_map. reflexivity. Qed.

Lemma find_task_present c id : (exists t, find_task (c_tasks c) id = Some t) <-> present (keys c) id.
Proof.
  unfold present, keys. rewrite map_fst_keys. split.
  - intros (t & H). destruct (find_task_some _ _ _ H) as [Hin Hid]. rewrite <- Hid. apply in_map. exact Hin.
  - intros Hin. destruct (find_task (c_tasks c) id) eqn:E; [eauto|]. apply find_task_none in E. contradiction.
Qed.

Lemma sorted_head_lt (x : tid) l : StronglySorted tlt (x :: l) -> forall y, In y l -> tlt x y.
Proof. intros H y Hy. inversion H; subst. rewrite Forall_forall in *. auto. Qed.


Lemma set_task_new_keys ts x :
  find_task ts (t_id x) = None ->
  forall k, In k (map key (set_task ts x)) <-> key x = k \/ In k (map key ts).
Proof.
  induction ts as [|h r IH]; cbn [find_task set_task map]; intros Hf k.
  - cbn. tauto.
  - destruct (tid_eqb (t_id x) (t_id h)) eqn:E; [discriminate|].
    destruct (tid_ltb (t_id x) (t_id h)); cbn [map In]; [tauto|].
    rewrite (IH Hf). tauto.
Qed.

Lemma del_task_keys ts id :
  StronglySorted tlt (map t_id ts) ->
  StronglySorted tlt (map t_id (del_task ts id)) /\
  (forall k, In k (map key (del_task ts id)) <-> In k (map key ts) /\ fst k <> id).
Proof.
  induction ts as [|h r IH]; cbn [del_task map]; intros Hs.
  - split; [constructor|]. intros k. cbn. tauto.
  - inversion Hs as [|? ? Hs' Hall]; subst. destruct (IH Hs') as [IS IK].
    destruct (tid_eqb id (t_id h)) eqn:E.
    + apply tid_eqb_eq in E. subst id. split; [exact Hs'|]. intros k. cbn [In]. split.
      * intros Hk. split; [right; exact Hk|]. intros Heq.
        apply (in_map fst) in Hk. rewrite map_fst_keys in Hk. rewrite Forall_forall in Hall.
        specialize (Hall _ Hk). rewrite Heq in Hall. exact (tlt_irrefl _ Hall).
      * intros [[Hk|Hk] Hne]; [subst k; cbn in Hne; congruence | exact Hk].
    + apply tid_eqb_neq in E. cbn [map]. split.
      * constructor; [exact IS|]. rewrite Forall_forall in *. intros y Hy.
        apply Hall. clear -Hy. induction r as [|h' r' IH']; cbn [del_task map] in *; [exact Hy|].
        destruct (tid_eqb id (t_id h')); [right; exact Hy|]. destruct Hy as [Hy|Hy]; [left; exact Hy | right; auto].
      * intros k. cbn [In]. rewrite IK. split.
        -- intros [Hk|[Hk Hne]]; [subst k; split; [left; reflexivity | cbn; congruence] | split; [right; exact Hk | exact Hne]].
        -- intros [[Hk|Hk] Hne]; [left; exact Hk | right; split; assumption].
Qed.

(** [shrinks K K' X]: exactly the ids in [X] disappeared, consumer lists only got shorter. *)
Record shrinks (K K' : list (tid * list tid)) (X : list tid) : Prop := mkShr {
  shr_sorted : KS K';
  shr_dom : forall t, present K' t <-> present K t /\ ~ In t X;
  shr_cons : forall id cs', In (id, cs') K' -> exists cs, In (id, cs) K /\ incl cs' cs
}.

Lemma shrinks_refl K : KS K -> shrinks K K [].
Proof. intros H. constructor; [exact H | intros t; cbn; tauto | intros id cs H1; exists cs; split; [exact H1 | apply incl_refl]]. Qed.

Lemma shrinks_eq K K' : KS K -> K' = K -> shrinks K K' [].
Proof. intros H ->. apply shrinks_refl. exact H. Qed.

Lemma shrinks_trans K1 K2 K3 X Y : shrinks K1 K2 X -> shrinks K2 K3 Y -> shrinks K1 K3 (X ++ Y).
Proof.
  intros [S1 D1 C1] [S2 D2 C2]. constructor; [exact S2 | |].
  - intros t. rewrite D2, D1, in_app_iff. tauto.
  - intros id cs3 H3. destruct (C2 _ _ H3) as (cs2 & H2 & I2). destruct (C1 _ _ H2) as (cs1 & H1 & I1).
    exists cs1. split; [exact H1 | eapply incl_tran; eassumption].
Qed.

Lemma shrinks_KD K K' X : shrinks K K' X -> KD K -> KD K'.
Proof.
  intros [_ _ C] D id cs x Hin Hx. destruct (C _ _ Hin) as (cs0 & H0 & I0). eapply D; [exact H0 | apply I0; exact Hx].
Qed.

Lemma shrinks_weaken K K' X Y : shrinks K K' X -> (forall t, present K t -> (In t X <-> In t Y)) -> shrinks K K' Y.
Proof.
  intros [S D C] H. constructor; [exact S | | exact C].
  intros t. rewrite D. split; intros [P N]; (split; [exact P|]); rewrite (H t P) in *; exact N.
Qed.

Definition jt (s : st) (id : N) : option (list (N * jstate)) := option_map j_tasks (find_job (h_jobs (hq_of s)) id).
Definition jactive (v : option jstate) : Prop := v = Some JW \/ v = Some JR.
Definition active (s : st) (t : tid) : Prop := exists l, jt s (fst t) = Some l /\ jactive (jt_find l (snd t)).

(** The invariant: the core knows exactly the tasks without outcome. *)
Definition BIJ (s : st) : Prop := forall t, present (keys (core_of s)) t <-> active s t.

Lemma jt_find_set l t v k : jt_find (jt_set l t v) k = if N.eqb k t then Some v else jt_find l k.
Proof.
  induction l as [|[k0 v0] r IH]; cbn [jt_set jt_find]; [reflexivity|].
  destruct (N.eqb t k0) eqn:E1.
  - apply N.eqb_eq in E1. subst k0. cbn [jt_find]. destruct (N.eqb k t); reflexivity.
  - destruct (N.ltb t k0); cbn [jt_find]; [reflexivity|].
    destruct (N.eqb k k0) eqn:E2.
    + apply N.eqb_eq in E2. subst k0. destruct (N.eqb k t) eqn:E3; [apply N.eqb_eq in E3; subst; rewrite N.eqb_refl in E1; discriminate | reflexivity].
    + exact IH.
Qed.

Lemma jt_set_job s j id : jt (hq_set_job s j) id = if N.eqb id (j_id j) then Some (j_tasks j) else jt s id.
Proof.
  unfold jt, hq_of, hq_set_job. cbn. rewrite find_job_set. destruct (N.eqb id (j_id j)); reflexivity.
Qed.
Lemma jt_emit s o id : jt (emit s o) id = jt s id.
Proof. reflexivity. Qed.
Lemma jt_st_core s c id : jt (st_core s c) id = jt s id.
Proof. reflexivity. Qed.
Lemma jt_same s s' : hq_of s' = hq_of s -> forall id, jt s' id = jt s id.
Proof. intros E id. unfold jt. rewrite E. reflexivity. Qed.
Lemma active_same s s' : (forall id, jt s' id = jt s id) -> forall t, active s' t <-> active s t.
Proof. intros E t. unfold active. rewrite E. reflexivity. Qed.
