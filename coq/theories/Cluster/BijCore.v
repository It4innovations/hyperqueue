(** C02 bijection, part 2: what the core's functions do to the KEYS of the task map.
    Frame lemmas (keys unchanged) for everything that only moves tasks between states, queues and
    workers: the consumers are a projection the state / instance setters do not touch, so these are
    the generic frame lemmas of [FrameGen]; [shrinks] lemmas for [remove_task] and its callers;
    growth for [add_new_tasks]. *)
From HQ Require Import Base.Prelude Cluster.Types Cluster.Core Cluster.Reactor Cluster.Worker Cluster.Server Cluster.Sys Cluster.ProofsJob Cluster.ProofsMore Cluster.ProofsStep Cluster.BijBase Cluster.FrameGen.
From HQ Require Import Cluster.ModelFacts.
From Coq Require Import ZArith Lia Sorting.Sorted.
Local Open Scope N_scope.

Arguments N.add : simpl never.
Arguments N.sub : simpl never.

Definition CS (c : core) : Prop := KS (keys c).

Lemma CS_sorted c : CS c -> StronglySorted tlt (map t_id (c_tasks c)).
Proof. unfold CS, KS, keys. rewrite map_fst_keys. auto. Qed.

Lemma CS_keys c c' : keys c' = keys c -> CS c -> CS c'.
Proof. unfold CS. intros ->. auto. Qed.

(** The consumers are a projection the setters keep, and [keys] is its [pkeys]. *)
Lemma cs_state t s : t_consumers (with_state t s) = t_consumers t. Proof. reflexivity. Qed.
Lemma cs_inst t i : t_consumers (with_inst t i) = t_consumers t. Proof. reflexivity. Qed.

Lemma upd_task_frame c id t x :
  CS c -> find_task (c_tasks c) id = Some t -> t_id x = t_id t -> t_consumers x = t_consumers t ->
  keys (upd_task c x) = keys c.
Proof. intros Hs. exact (upd_task_pframe _ t_consumers c id t x (CS_sorted _ Hs)). Qed.

Lemma try_remove_redirection_frame c t c' : try_remove_redirection c t = Ok c' -> keys c' = keys c.
Proof. exact (try_remove_redirection_pframe _ t_consumers c t c'). Qed.

Lemma reset_mn_workers_frame ws : forall c id c', reset_mn_workers c ws id = Ok c' -> keys c' = keys c.
Proof. exact (reset_mn_workers_pframe _ t_consumers ws). Qed.

Lemma reset_mn_all_frame ws : forall c c', reset_mn_all c ws = Ok c' -> keys c' = keys c.
Proof. exact (reset_mn_all_pframe _ t_consumers ws). Qed.

Lemma wake_consumers_frame csm : forall c ret c' ret',
  CS c -> wake_consumers c csm ret = Ok (c', ret') -> keys c' = keys c.
Proof. intros c ret c' ret' Hs. exact (wake_consumers_pframe _ _ cs_state csm c ret c' ret' (CS_sorted _ Hs)). Qed.

Lemma lost_prefilled_frame l : forall c c', CS c -> lost_prefilled c l = Ok c' -> keys c' = keys c.
Proof. intros c c' Hs. exact (lost_prefilled_pframe _ _ cs_state cs_inst l c c' (CS_sorted _ Hs)). Qed.

Lemma lost_assigned_frame l : forall c running ret c' running' ret',
  CS c -> lost_assigned c l running ret = Ok (c', running', ret') -> keys c' = keys c.
Proof.
  intros c running ret c' running' ret' Hs.
  exact (lost_assigned_pframe _ _ cs_state cs_inst l c running ret c' running' ret' (CS_sorted _ Hs)).
Qed.

Lemma map_sn_frame sol l : forall c m c' m', CS c -> map_sn c m sol l = Ok (c', m') -> keys c' = keys c.
Proof. intros c m c' m' Hs. exact (map_sn_pframe _ _ cs_state sol l c m c' m' (CS_sorted _ Hs)). Qed.

Lemma map_mn_frame l : forall c mn c' mn', CS c -> map_mn c mn l = Ok (c', mn') -> keys c' = keys c.
Proof. intros c mn c' mn' Hs. exact (map_mn_pframe _ _ cs_state l c mn c' mn' (CS_sorted _ Hs)). Qed.

Lemma prefill_queues_frame n : forall c m worder qi top c' m',
  CS c -> prefill_queues c m worder qi n top = Ok (c', m') -> keys c' = keys c.
Proof.
  intros c m worder qi top c' m' Hs.
  exact (prefill_queues_pframe _ _ cs_state n c m worder qi top c' m' (CS_sorted _ Hs)).
Qed.

Lemma present_ids c t : present (keys c) t <-> In t (map t_id (c_tasks c)).
Proof. unfold present, keys. rewrite map_fst_keys. reflexivity. Qed.

Lemma present_key K t : present K t <-> exists cs, In (t, cs) K.
Proof.
  unfold present. rewrite in_map_iff. split.
  - intros ([t0 cs] & E & H). cbn in E. subst t0. eauto.
  - intros (cs & H). exists (t, cs). auto.
Qed.

Lemma set_task_ids ts x t :
  StronglySorted tlt (map t_id ts) -> find_task ts (t_id x) = Some t -> map t_id (set_task ts x) = map t_id ts.
Proof.
  induction ts as [|h r IH]; cbn [find_task set_task map]; [discriminate|]. intros Hs Hf.
  destruct (tid_eqb (t_id x) (t_id h)) eqn:E.
  - apply tid_eqb_eq in E. cbn [map]. rewrite E. reflexivity.
  - destruct (find_task_some _ _ _ Hf) as [Hin Hid].
    assert (tlt (t_id h) (t_id x)) as Hlt.
    { rewrite <- Hid. eapply sorted_head_lt; [exact Hs|]. apply in_map. exact Hin. }
    destruct (tid_ltb (t_id x) (t_id h)) eqn:L.
    + exfalso. eapply tlt_irrefl. eapply tlt_trans; [exact Hlt | exact L].
    + cbn [map]. f_equal. apply IH; [inversion Hs; assumption | exact Hf].
Qed.

Lemma set_task_keys_in ts x k : In k (map key (set_task ts x)) -> k = key x \/ In k (map key ts).
Proof.
  induction ts as [|h r IH]; cbn [set_task map In]; [intros [H|[]]; auto|].
  destruct (tid_eqb (t_id x) (t_id h)); cbn [map In]; [intros [H|H]; auto|].
  destruct (tid_ltb (t_id x) (t_id h)); cbn [map In]; [intros [H|[H|H]]; auto|].
  intros [H|H]; [auto|]. destruct (IH H); auto.
Qed.

Lemma tid_remove_incl x l : incl (tid_remove x l) l.
Proof.
  induction l as [|h t IH]; cbn [tid_remove]; [apply incl_refl|].
  destruct (tid_eqb x h); [apply incl_tl, incl_refl|]. intros y [Hy|Hy]; [left; exact Hy | right; apply IH; exact Hy].
Qed.

Definition tshr (ts ts' : list task) : Prop :=
  map t_id ts' = map t_id ts /\
  forall id cs', In (id, cs') (map key ts') -> exists cs, In (id, cs) (map key ts) /\ incl cs' cs.

Lemma remove_consumer_from_tshr deps : forall ts cid ts',
  StronglySorted tlt (map t_id ts) -> remove_consumer_from ts deps cid = Ok ts' -> tshr ts ts'.
Proof.
  induction deps as [|d r IH]; cbn [remove_consumer_from]; intros ts cid ts' Hs H.
  - inversion H; subst. split; [reflexivity|]. intros id cs Hin. exists cs. split; [exact Hin | apply incl_refl].
  - destruct (find_task ts d) as [input|] eqn:Ef; [|eapply IH; eassumption].
    destruct (tid_mem cid (t_consumers input)); [|discriminate].
    set (x := with_consumers input (tid_remove cid (t_consumers input))) in *.
    destruct (find_task_some _ _ _ Ef) as [Hin Hid].
    assert (Hfx : find_task ts (t_id x) = Some input) by (cbn; rewrite Hid; exact Ef).
    pose proof (set_task_ids _ _ _ Hs Hfx) as Eids.
    assert (Hs1 : StronglySorted tlt (map t_id (set_task ts x))) by (rewrite Eids; exact Hs).
    destruct (IH _ _ _ Hs1 H) as [I1 I2]. split; [rewrite I1; exact Eids|].
    intros id cs' Hk. destruct (I2 _ _ Hk) as (cs1 & Hk1 & Hi1).
    destruct (set_task_keys_in _ _ _ Hk1) as [Heq|Hold].
    + inversion Heq; subst. exists (t_consumers input). split.
      * change (In (key input) (map key ts)). apply in_map. exact Hin.
      * eapply incl_tran; [exact Hi1 | apply tid_remove_incl].
    + exists cs1. split; assumption.
Qed.

Lemma remove_task_shrinks c id c' stt :
  CS c -> remove_task c id = Ok (c', stt) -> shrinks (keys c) (keys c') [id] /\ present (keys c) id.
Proof.
  intros Hs H. unfold remove_task in H.
  destruct (find_task (c_tasks c) id) as [t|] eqn:Ef; [|discriminate].
  assert (Hp : present (keys c) id) by (apply find_task_present; eauto).
  split; [|exact Hp].
  destruct (del_task_keys (c_tasks c) id (CS_sorted _ Hs)) as [DS DK].
  (* every result has tasks related by [tshr] to the deleted list *)
  assert (Hts : tshr (del_task (c_tasks c) id) (c_tasks c')).
  { assert (R0 : tshr (del_task (c_tasks c) id) (del_task (c_tasks c) id)).
    { split; [reflexivity|]. intros i cs Hin. exists cs. split; [exact Hin | apply incl_refl]. }
    destruct (t_state t); try (inversion H; subst; exact R0).
    apply bind_ok in H. destruct H as (c2 & H2 & H).
    assert (E2 : c_tasks c2 = del_task (c_tasks c) id).
    { destruct (N.eqb unfinished_deps 0); [|inversion H2; reflexivity]. inv_binds H2. inversion H2; reflexivity. }
    destruct (N.ltb 0 unfinished_deps).
    - apply bind_ok in H. destruct H as (ts & Hr & H). inversion H; subst. cbn.
      rewrite E2 in Hr. eapply remove_consumer_from_tshr; [exact DS | exact Hr].
    - inversion H; subst. rewrite E2. exact R0. }
  destruct Hts as [Ti Tk]. constructor.
  - unfold KS, keys. rewrite map_fst_keys, Ti. exact DS.
  - intros x. rewrite !present_ids, Ti. cbn [In].
    rewrite <- (map_fst_keys (del_task _ _)), <- (map_fst_keys (c_tasks c)).
    split.
    + intros Hx. apply in_map_iff in Hx. destruct Hx as (k & Ek & Hk). apply DK in Hk. destruct Hk as [Hk Hne].
      subst x. split; [apply in_map; exact Hk | intros [E|[]]; congruence].
    + intros [Hx Hn]. apply in_map_iff in Hx. destruct Hx as (k & Ek & Hk). subst x.
      apply in_map. apply DK. split; [exact Hk | intros E; apply Hn; left; congruence].
  - intros i cs' Hin. destruct (Tk _ _ Hin) as (cs & Hk & Hi). apply DK in Hk. exists cs. split; [apply Hk | exact Hi].
Qed.

Lemma remove_tasks_batched_shrinks l : forall c c',
  CS c -> remove_tasks_batched c l = Ok c' -> shrinks (keys c) (keys c') l /\ Forall (present (keys c)) l.
Proof.
  induction l as [|id r IH]; cbn [remove_tasks_batched]; intros c c' Hs H.
  - inversion H; subst. split; [apply shrinks_refl; exact Hs | constructor].
  - apply bind_ok in H. destruct H as ([c1 stt] & H1 & H).
    destruct (remove_task_shrinks _ _ _ _ Hs H1) as [S1 P1].
    destruct (IH _ _ (shr_sorted _ _ _ S1) H) as [S2 P2]. split.
    + exact (shrinks_trans _ _ _ [id] r S1 S2).
    + constructor; [exact P1|]. rewrite Forall_forall in *. intros x Hx. apply (shr_dom _ _ _ S1). auto.
Qed.

Lemma remove_waiting_consumers_shrinks l : forall c c',
  CS c -> remove_waiting_consumers c l = Ok c' -> shrinks (keys c) (keys c') l /\ Forall (present (keys c)) l.
Proof.
  induction l as [|id r IH]; cbn [remove_waiting_consumers]; intros c c' Hs H.
  - inversion H; subst. split; [apply shrinks_refl; exact Hs | constructor].
  - apply bind_ok in H. destruct H as ([c1 stt] & H1 & H).
    destruct stt; try discriminate.
    destruct (remove_task_shrinks _ _ _ _ Hs H1) as [S1 P1].
    destruct (IH _ _ (shr_sorted _ _ _ S1) H) as [S2 P2]. split.
    + exact (shrinks_trans _ _ _ [id] r S1 S2).
    + constructor; [exact P1|]. rewrite Forall_forall in *. intros x Hx. apply (shr_dom _ _ _ S1). auto.
Qed.


Lemma register_deps_spec deps : forall c id kept count c' kept' count',
  CS c -> KD (keys c) -> (forall d, In d deps -> fst d = fst id) ->
  register_deps c id deps kept count = (c', kept', count') ->
  map t_id (c_tasks c') = map t_id (c_tasks c) /\ KD (keys c') /\ c_queues c' = c_queues c.
Proof.
  induction deps as [|d r IH]; cbn [register_deps]; intros c id kept count c' kept' count' Hs Hd Hj H.
  - inversion H; subst. auto.
  - destruct (find_task (c_tasks c) d) as [dep|] eqn:Ef; [|eapply IH; eauto; intros; apply Hj; right; assumption].
    set (x := with_consumers dep (tid_insert id (t_consumers dep))) in *.
    destruct (find_task_some _ _ _ Ef) as [Hin Hid].
    assert (Hfx : find_task (c_tasks c) (t_id x) = Some dep) by (cbn; rewrite Hid; exact Ef).
    pose proof (set_task_ids _ _ _ (CS_sorted _ Hs) Hfx) as Eids.
    assert (Hs1 : CS (upd_task c x)).
    { unfold CS, KS, keys, upd_task. cbn. rewrite map_fst_keys, Eids. apply CS_sorted. exact Hs. }
    assert (Hd1 : KD (keys (upd_task c x))).
    { intros i cs y Hk Hy. unfold keys, upd_task in Hk. cbn in Hk.
      destruct (set_task_keys_in _ _ _ Hk) as [Heq|Hold]; [|eapply Hd; eassumption].
      unfold key in Heq. cbn in Heq. injection Heq as Hi Hcs. rewrite Hcs in Hy. rewrite Hi.
      destruct (tid_insert_in _ _ _ Hy) as [Hy'|Hy'].
      - rewrite Hy', Hid. symmetry. apply Hj. left. reflexivity.
      - eapply Hd; [|exact Hy']. change (In (key dep) (map key (c_tasks c))). apply in_map. exact Hin. }
    destruct (IH _ _ _ _ _ _ _ Hs1 Hd1 (fun d0 Hd0 => Hj d0 (or_intror Hd0)) H) as (I1 & I2 & I3).
    split; [rewrite I1; exact Eids | split; [exact I2 | exact I3]].
Qed.

Definition new_ok (t : task) : Prop := t_consumers t = [] /\ forall d, In d (t_deps t) -> fst d = fst (t_id t).

Lemma add_new_tasks_spec ts : forall c ret c' ret',
  CS c -> KD (keys c) -> Forall new_ok ts ->
  add_new_tasks c ts ret = Ok (c', ret') ->
  CS c' /\ KD (keys c') /\ (forall x, present (keys c') x <-> present (keys c) x \/ In x (map t_id ts)).
Proof.
  induction ts as [|t r IH]; cbn [add_new_tasks]; intros c ret c' ret' Hs Hd Hn H.
  - inversion H; subst. split; [exact Hs | split; [exact Hd|]]. intros x. cbn. tauto.
  - inversion Hn as [|? ? [Hc Hj] Hn']; subst.
    destruct (register_deps c (t_id t) (t_deps t) [] 0) as [[c1 kept] count] eqn:Er.
    destruct (register_deps_spec _ _ _ _ _ _ _ _ Hs Hd Hj Er) as (E1 & D1 & _).
    apply bind_ok in H. destruct H as ([c2 rt] & H2 & H).
    assert (E2 : c_tasks c2 = c_tasks c1).
    { destruct (N.eqb count 0); [|inversion H2; reflexivity]. inv_binds H2. inversion H2; reflexivity. }
    destruct (find_task (c_tasks c2) (t_id t)) eqn:Ef; [discriminate|].
    set (t1 := with_state (with_deps t kept) (Waiting count)) in *.
    assert (Hs1 : StronglySorted tlt (map t_id (c_tasks c2))) by (rewrite E2, E1; apply CS_sorted; exact Hs).
    assert (Hs3 : CS (upd_task c2 t1)).
    { unfold CS, KS, keys, upd_task. cbn. rewrite map_fst_keys. apply set_task_sorted; exact Hs1. }
    pose proof (set_task_new_keys (c_tasks c2) t1 Ef) as K3.
    assert (Hd3 : KD (keys (upd_task c2 t1))).
    { intros i cs y Hk Hy. unfold keys, upd_task in Hk. cbn in Hk. apply K3 in Hk. destruct Hk as [Heq|Hold].
      - unfold key in Heq. cbn in Heq. inversion Heq; subst. rewrite Hc in Hy. destruct Hy.
      - rewrite E2 in Hold. eapply D1; eassumption. }
    destruct (IH _ _ _ _ Hs3 Hd3 Hn' H) as (A1 & A2 & A3). split; [exact A1 | split; [exact A2|]].
    intros x. rewrite A3. cbn [map In].
    assert (present (keys (upd_task c2 t1)) x <-> t_id t = x \/ present (keys c) x) as ->; [|tauto].
    rewrite (present_key (keys (upd_task c2 t1))). split.
    + intros (cs & Hk). unfold keys, upd_task in Hk. cbn in Hk. apply K3 in Hk. destruct Hk as [Heq|Hold].
      * left. unfold key in Heq. cbn in Heq. inversion Heq; reflexivity.
      * right. apply present_ids. rewrite <- E1, <- E2.
        apply (in_map fst) in Hold. rewrite map_fst_keys in Hold. exact Hold.
    + intros [Heq|Hp].
      * exists (t_consumers t1). unfold keys, upd_task. cbn [c_tasks with_tasks]. apply K3. left. unfold key. cbn. rewrite Heq. reflexivity.
      * apply present_key. apply present_ids. unfold upd_task. cbn [c_tasks with_tasks].
        rewrite <- (map_fst_keys (set_task _ _)).
        apply present_ids in Hp. rewrite <- E1, <- E2, <- (map_fst_keys (c_tasks c2)) in Hp.
        apply in_map_iff in Hp. destruct Hp as (k & Ek & Hk). rewrite <- Ek. apply in_map. apply K3. right. exact Hk.
Qed.
