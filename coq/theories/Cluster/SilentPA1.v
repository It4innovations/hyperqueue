(** C01 / C08, "silent after terminal" WITHOUT the hypothesis [op_wf]: the one direction of the
    C02 bijection that the argument needs - a task the core knows is shown as waiting or running
    by the job layer ("no phantom task") - holds for EVERY history, also for submits that send
    fewer entries than ids (finding F26: those create orphan job tasks, the other direction of
    the bijection fails, this one does not).

    [PA s] is [BijReact.CB s] with the equivalence weakened to the implication
    present-in-the-core -> active-in-the-job-layer.  The proofs are those of BijReact.v /
    BijFinal.v, which use the other direction nowhere except in the submit handler.
    This file: reactor, worker loss, cancel. *)
From HQ Require Import Base.Prelude Cluster.Types Cluster.Core Cluster.Reactor Cluster.Worker Cluster.Server Cluster.Sys Cluster.ProofsJob Cluster.ProofsMore Cluster.ProofsTerminal Cluster.ProofsStep Cluster.BijBase Cluster.BijCore Cluster.BijHq Cluster.BijSt Cluster.BijReact Cluster.RejHyp Cluster.ReactSplit.
From HQ Require Import Cluster.ModelFacts.
From Coq Require Import ZArith Lia Sorting.Sorted.
Local Open Scope N_scope.

Arguments N.add : simpl never.
Arguments N.sub : simpl never.

Record PA (s : st) : Prop := mkPA { pa_s : CS (core_of s); pa_d : KD (K s); pa_b : forall t, present (K s) t -> active s t }.

Lemma CB_PA s : CB s -> PA s.
Proof. intros [A B C]. constructor; [exact A | exact B | intros t Ht; apply C; exact Ht]. Qed.

Lemma PA_frame s s' : K s' = K s -> (forall x, active s' x <-> active s x) -> PA s -> PA s'.
Proof.
  intros E A [S D B]. constructor.
  - eapply CS_keys; [exact E | exact S].
  - rewrite E. exact D.
  - intros t. rewrite E, A. apply B.
Qed.

Lemma PA_same s s' : K s' = K s -> hq_of s' = hq_of s -> PA s -> PA s'.
Proof. intros E H. apply PA_frame; [exact E|]. apply active_same. apply jt_same. exact H. Qed.

Lemma PA_remove s s' X Y :
  shrinks (K s) (K s') X -> (forall x, active s' x <-> active s x /\ ~ In x Y) ->
  (forall x, present (K s) x -> (In x X <-> In x Y)) -> PA s -> PA s'.
Proof.
  intros Sh A XY [S D B]. constructor.
  - exact (shr_sorted _ _ _ Sh).
  - eapply shrinks_KD; [exact Sh | exact D].
  - intros t Ht. apply (shr_dom _ _ _ Sh) in Ht. destruct Ht as [P N]. apply A. split; [apply B; exact P|].
    intros Hy. apply N. apply (XY t P). exact Hy.
Qed.

Lemma task_finished_PA s w id s' b : PA s -> task_finished s w id = Ok (s', b) -> PA s'.
Proof.
  intros HC H. apply task_finished_split in H.
  destruct (find_task (c_tasks (core_of s)) id) as [t|] eqn:Ef; [|subst; exact HC].
  destruct H as (c1 & s1 & c3 & retracted & s2 & c4 & Et & Hf & Hw & Hr & Hrm & ->).
  assert (Ek : keys c1 = K s) by (unfold K, keys; rewrite Et; reflexivity).
  assert (Hs1 : CS c1) by (eapply CS_keys; [exact Ek | exact (pa_s _ HC)]).
  assert (E2 : keys (upd_task c1 (with_state t Finished)) = K s).
  { rewrite <- Ek. apply (upd_task_frame c1 id t); [exact Hs1 | rewrite Et; exact Ef | reflexivity | reflexivity]. }
  destruct (process_task_finished_active _ _ _ Hf) as [C1 A1].
  assert (Ks1 : K s1 = K s) by (unfold K; rewrite C1; exact E2).
  assert (Hss1 : CS (core_of s1)) by (eapply CS_keys; [exact Ks1 | exact (pa_s _ HC)]).
  pose proof (wake_consumers_frame _ _ _ _ _ Hss1 Hw) as E3.
  assert (Ks2 : K s2 = K s).
  { rewrite (process_retracted_K (st_core s1 c3) _ _ (CS_keys _ _ E3 Hss1) Hr). unfold K in *. change (keys c3 = keys (core_of s)). rewrite E3. exact Ks1. }
  assert (Hss2 : CS (core_of s2)) by (eapply CS_keys; [exact Ks2 | exact (pa_s _ HC)]).
  destruct (remove_task_shrinks _ _ _ _ Hss2 Hrm) as [Sh _].
  pose proof (process_retracted_hq _ _ _ Hr) as Hq.
  eapply (PA_remove s _ [id] [id]); [| | tauto | exact HC].
  - change (shrinks (K s) (keys c4) [id]). rewrite <- Ks2. exact Sh.
  - intros x. rewrite (active_same s1 (st_core s2 c4)) by (apply jt_same; exact Hq).
    rewrite A1. rewrite (active_same s (st_core s (upd_task c1 (with_state t Finished)))) by (intros; reflexivity).
    cbn [In]. split; [intros [A N]; split; [exact A | intros [E|[]]; congruence] | intros [A N]; split; [exact A | intros E; apply N; left; congruence]].
Qed.


Lemma task_failed_PA s w id k s' : HOK (hq_of s) -> PA s -> task_failed s w id k = Ok s' -> PA s'.
Proof.
  intros Hok HC H. apply task_failed_split in H.
  destruct (find_task (c_tasks (core_of s)) id) as [t|] eqn:Ef; [|subst; exact HC].
  destruct (find_task_some _ _ _ Ef) as [Hin Hid]. apply tid_eqb_eq in Hid.
  destruct H as (c1 & csm & c2 & c3 & stt & s1 & cancel_ids & Et & Hcs & H2 & H3 & H4 & H).
  assert (Ek : keys c1 = K s) by (unfold K, keys; rewrite Et; reflexivity).
  assert (Hs1 : CS c1) by (eapply CS_keys; [exact Ek | exact (pa_s _ HC)]).
  assert (Hjob : forall x, In x csm -> fst x = fst id).
  { rewrite <- (proj1 (tid_eqb_eq _ _) Hid). eapply recursive_consumers_job; [| |exact Hcs].
    - change (KD (keys c1)). rewrite Ek. exact (pa_d _ HC).
    - rewrite Et. exact Hin. }
  destruct (remove_waiting_consumers_shrinks _ _ _ Hs1 H2) as [Sh2 _].
  destruct (remove_task_shrinks _ _ _ _ (shr_sorted _ _ _ Sh2) H3) as [Sh3 _].
  pose proof (shrinks_trans _ _ _ _ _ Sh2 Sh3) as Sh23. rewrite Ek in Sh23.
  destruct (process_task_failed_active (st_core s c3) id csm k s1 cancel_ids Hok H4) as (C4 & A4 & J4 & N4).
  assert (Ks1 : K s1 = keys c3) by (unfold K; rewrite C4; reflexivity).
  assert (A4' : forall x, active s1 x <-> active s x /\ ~ In x (csm ++ [id] ++ cancel_ids)).
  { intros x. rewrite A4. rewrite (active_same s (st_core s c3)) by (intros; reflexivity).
    rewrite !in_app_iff. cbn [In]. split.
    - intros (A & N1 & N2 & N3). split; [exact A|]. intros [X|[[X|[]]|X]]; auto.
    - intros (A & N). split; [exact A|]. split; [auto|]. split; [intros X; apply N; right; left; left; auto | auto]. }
  destruct cancel_ids as [|c0 cr] eqn:Ecid.
  - subst s'. eapply (PA_remove s s1 (csm ++ [id]) (csm ++ [id] ++ [])); [rewrite Ks1; exact Sh23 | exact A4' | | exact HC].
    intros x _. rewrite app_nil_r. reflexivity.
  - rewrite <- Ecid in *. clear Ecid.
    assert (Hs3 : CS (core_of s1)) by (unfold CS; fold (K s1); rewrite Ks1; exact (shr_sorted _ _ _ Sh23)).
    assert (Hd3 : KD (K s1)) by (rewrite Ks1; eapply shrinks_KD; [exact Sh23 | exact (pa_d _ HC)]).
    destruct (on_cancel_tasks_spec _ _ _ Hs3 Hd3 H) as (X & ShX & X1 & X2).
    pose proof (on_cancel_tasks_hq _ _ _ H) as Hq.
    rewrite Ks1 in ShX. pose proof (shrinks_trans _ _ _ _ _ Sh23 ShX) as ShAll.
    eapply (PA_remove s s' ((csm ++ [id]) ++ X) (csm ++ [id] ++ cancel_ids)); [exact ShAll | | | exact HC].
    + intros x. rewrite (active_same s1 s') by (apply jt_same; exact Hq). apply A4'.
    + intros x Hp. rewrite !in_app_iff. cbn [In].
      assert (Hcore : ~ In x csm -> x <> id -> (In x X <-> In x cancel_ids)).
      { intros Nc Ni. split.
        - intros Hx. destruct (X2 _ Hx) as (_ & y & Hy & _ & Hf).
          apply N4; [intros E; rewrite E in Hy; destruct Hy | rewrite Hf; apply J4; exact Hy | | exact Nc | exact Ni].
          rewrite (active_same s (st_core s c3)) by (intros; reflexivity). apply (pa_b _ HC). exact Hp.
        - intros Hx. apply X1; [exact Hx|]. rewrite Ks1. apply (shr_dom _ _ _ Sh23). split; [exact Hp|].
          rewrite in_app_iff. cbn [In]. intros [E|[E|[]]]; [auto | apply Ni; auto]. }
      split.
      * intros [[Hx|[Hx|[]]]|Hx]; [left; exact Hx | right; left; left; exact Hx|].
        destruct (in_dec tid_dec x csm) as [Ic|Nc]; [left; exact Ic|].
        destruct (tid_eqb x id) eqn:Ei; [apply tid_eqb_eq in Ei; right; left; left; auto|].
        apply tid_eqb_neq in Ei. right. right. apply Hcore; assumption.
      * intros [Hx|[[Hx|[]]|Hx]]; [left; left; exact Hx | left; right; left; exact Hx|].
        destruct (in_dec tid_dec x csm) as [Ic|Nc]; [left; left; exact Ic|].
        destruct (tid_eqb x id) eqn:Ei; [apply tid_eqb_eq in Ei; left; right; left; auto|].
        apply tid_eqb_neq in Ei. right. apply Hcore; assumption.
Qed.


(** [PA] (with the counters it needs) as a relation between the ends of a piece. *)
Definition PAR (s s' : st) : Prop := HOK (hq_of s) -> PA s -> HOK (hq_of s') /\ PA s'.

Lemma PAR_refl s : PAR s s.
Proof. intros Hok HC. split; assumption. Qed.
Lemma PAR_trans a b c : PAR a b -> PAR b c -> PAR a c.
Proof. intros A B Hok HC. destruct (A Hok HC) as [Hok1 HC1]. exact (B Hok1 HC1). Qed.
Lemma PAR_same s s' : K s' = K s -> hq_of s' = hq_of s -> PAR s s'.
Proof. intros Ek Eh Hok HC. split; [rewrite Eh; exact Hok | eapply PA_same; eassumption]. Qed.

Lemma apply_one_PA s w u s' n : apply_one s w u = Ok (s', n) -> PAR s s'.
Proof.
  intros Hu Hok HC. destruct u; cbn [apply_one] in Hu.
  - split; [eapply task_finished_ok; eassumption | eapply task_finished_PA; eassumption].
  - apply bind_ok in Hu. destruct Hu as (sx & Hf & Hu). inversion Hu; subst.
    split; [eapply task_failed_ok; eassumption | eapply task_failed_PA; eassumption].
  - split; [eapply task_running_ok; eassumption|].
    destruct (task_running_spec _ _ _ _ _ _ (pa_s _ HC) Hu) as [E A]. eapply PA_frame; eassumption.
  - split; [eapply task_running_ok; eassumption|].
    destruct (task_running_spec _ _ _ _ _ _ (pa_s _ HC) Hu) as [E A]. eapply PA_frame; eassumption.
  - exact (PAR_same _ _ (task_reject_K _ _ _ _ _ _ (pa_s _ HC) Hu) (task_reject_same _ _ _ _ _ _ Hu) Hok HC).
  - apply bind_ok in Hu. destruct Hu as (sx & Hf & Hu). inversion Hu; subst.
    exact (PAR_same _ _ (request_enabled_K _ _ _ _ _ Hf) (request_enabled_same _ _ _ _ _ Hf) Hok HC).
Qed.

Lemma on_task_update_PA s w us s' : HOK (hq_of s) -> PA s -> on_task_update s w us = Ok s' -> PA s'.
Proof.
  intros Hok HC H. refine (proj2 (on_task_update_rel PAR PAR_refl PAR_trans apply_one_PA _ _ _ _ _ H Hok HC)).
  intros x. apply PAR_same; reflexivity.
Qed.

Lemma lost_fail_running_PA l : forall s reason s',
  HOK (hq_of s) -> PA s -> lost_fail_running s reason l = Ok s' -> PA s'.
Proof.
  intros s reason s' Hok HC H. refine (proj2 (lost_fail_running_rel PAR PAR_refl PAR_trans _ _ l s reason s' H Hok HC)).
  - intros s0 id t Ef Hok0 HC0. split; [exact Hok0|]. eapply PA_same; [| |exact HC0]; [|reflexivity].
    apply (upd_task_frame (core_of s0) id t); [exact (pa_s _ HC0) | exact Ef | reflexivity | reflexivity].
  - intros s0 id k s1 _ Hf Hok0 HC0. split; [eapply task_failed_ok; eassumption | eapply task_failed_PA; eassumption].
Qed.

Lemma on_remove_worker_PA s w reason a p t s' :
  HOK (hq_of s) -> PA s -> on_remove_worker s w reason a p t = Ok s' -> PA s'.
Proof.
  intros Hok HC H.
  destruct (on_remove_worker_split _ _ _ _ _ _ _ H) as (wk & c2 & running & retracted & s3 & s4 & s6 & s7 & _ & Hr & H3 & H4 & _ & _ & H6 & H7 & ->).
  pose proof (lost_sets_keys _ _ _ _ _ _ _ _ (pa_s _ HC : CS (with_workers (core_of s) _)) Hr) as E2. change (keys c2 = K s) in E2.
  match type of H3 with lost_retracting ?sx _ _ = _ => set (s2 := sx) in * end.
  assert (HC2 : PA s2) by (eapply PA_same; [exact E2 | reflexivity | exact HC]).
  pose proof (lost_retracting_K _ _ _ _ (pa_s _ HC2) H3) as K3. pose proof (lost_retracting_same _ _ _ _ H3) as Q3.
  assert (HC3 : PA s3) by (eapply PA_same; [exact K3 | exact Q3 | exact HC2]).
  pose proof (process_retracted_K _ _ _ (pa_s _ HC3) H4) as K4. pose proof (process_retracted_hq _ _ _ H4) as Q4.
  assert (HC4 : PA s4) by (eapply PA_same; [exact K4 | exact Q4 | exact HC3]).
  assert (HC5 : PA (broadcast s4 (DLostWorker w))) by (eapply PA_same; [| |exact HC4]; reflexivity).
  destruct (process_worker_lost_active _ _ _ _ _ H6) as [C6 A6].
  assert (HC6 : PA s6) by (eapply PA_frame; [unfold K; rewrite C6; reflexivity | exact A6 | exact HC5]).
  assert (Hok6 : HOK (hq_of s6)).
  { eapply process_worker_lost_ok; [|exact H6]. change (HOK (hq_of s4)). unfold hq_same in Q3. rewrite Q4, Q3. exact Hok. }
  pose proof (lost_fail_running_PA _ _ _ _ Hok6 HC6 H7) as HC7.
  eapply PA_same; [| |exact HC7]; reflexivity.
Qed.

Lemma handle_cancel_PA s jid s' : HOK (hq_of s) -> PA s -> handle_cancel s jid = Ok s' -> PA s'.
Proof.
  intros Hok HC H. unfold handle_cancel in H.
  destruct (find_job (hq_jobs s) jid) as [j|] eqn:Ej; [|inversion H; subst; eapply PA_same; [| |exact HC]; reflexivity].
  assert (Hjt : jt s jid = Some (j_tasks j)) by (unfold jt, hq_of; unfold hq_jobs in Ej; rewrite Ej; reflexivity).
  pose proof (find_job_id _ _ _ Ej) as Hid.
  assert (Hin : forall x, In x (non_finished_task_ids j) <-> fst x = jid /\ active s x).
  { intros x. rewrite (non_finished_in _ _ (jok_sorted _ (Hok _ (find_job_in _ _ _ Ej)))), Hid. split.
    - intros [Hf Ha]. split; [exact Hf|]. exists (j_tasks j). rewrite Hf. auto.
    - intros [Hf (l & Hl & Ha)]. split; [exact Hf|]. rewrite Hf, Hjt in Hl. inversion Hl; subst. exact Ha. }
  destruct (non_finished_task_ids j) as [|i0 ir] eqn:En; [inversion H; subst; eapply PA_same; [| |exact HC]; reflexivity|].
  rewrite <- En in *. clear En.
  apply bind_ok in H. destruct H as (s1 & H1 & H). apply bind_ok in H. destruct H as (al & _ & H).
  apply bind_ok in H. destruct H as (s2 & H2 & H). inversion H; subst.
  destruct (on_cancel_tasks_spec _ _ _ (pa_s _ HC) (pa_d _ HC) H1) as (X & Sh & X1 & X2).
  pose proof (on_cancel_tasks_hq _ _ _ H1) as Q1.
  destruct (set_cancel_state_active _ _ _ _ H2) as [C2 A2].
  eapply (PA_remove s _ X (non_finished_task_ids j)); [| | |exact HC].
  - change (shrinks (K s) (K s2) X). unfold K in *. rewrite C2. exact Sh.
  - intros x. rewrite (active_same s2 (emit s2 _)) by (intros; reflexivity). rewrite A2.
    rewrite (active_same s s1) by (apply jt_same; exact Q1). reflexivity.
  - intros x Hp. split.
    + intros Hx. destruct (X2 _ Hx) as (_ & y & Hy & _ & Hf). apply Hin. split.
      * rewrite Hf. apply Hin in Hy. apply Hy.
      * apply (pa_b _ HC). exact Hp.
    + intros Hx. apply X1; assumption.
Qed.
