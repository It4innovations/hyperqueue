(** Worker-set invariant: the theorem for every history of the system model.
    In every reachable state the server-side worker bookkeeping agrees with the task states, in both
    directions.  Premises: [Forall op_wf ops] (the client sends as many entries as ids; needed for the
    sortedness of the task map through [run_CB]) and [run_fresh ... = true] (RejHyp.v: a processed
    reject was sent by the worker the task is placed on with the variant it was assigned with, and a
    failing task that was placed as a multi-node task has a multi-node request; InvWWitness.v shows
    the invariant is false without the latter). *)
From HQ Require Import Base.Prelude Cluster.Types Cluster.Core Cluster.Reactor Cluster.Worker Cluster.Server Cluster.Sys Cluster.Monitors Cluster.RejHyp Cluster.ProofsJob Cluster.ProofsMore Cluster.ProofsTerminal Cluster.ProofsStep Cluster.ProofsFinal Cluster.BijBase Cluster.BijCore Cluster.BijHq Cluster.BijSt Cluster.BijReact Cluster.BijFinal Cluster.InvWBase Cluster.InvWView Cluster.InvWCore Cluster.InvWReact Cluster.InvWServer Cluster.InvQBase.
From HQ Require Import Cluster.ReactSplit.
From HQ Require Import Cluster.StepShape.
From HQ Require Import Cluster.ModelFacts.
From Coq Require Import ZArith Lia Sorting.Sorted.
Local Open Scope N_scope.

Arguments N.add : simpl never.
Arguments N.sub : simpl never.

Definition upd_ok (s : st) (w : wid) (u : wupdate) : Prop :=
  match u with
  | UReject t rv => reject_ok (core_of s) w t rv
  | UFailed t _ => fail_mn_ok (core_of s) t
  | _ => True
  end.

Lemma reject_fresh_ok s w u : reject_fresh s w u = true -> upd_ok s w u.
Proof.
  destruct u; cbn [reject_fresh upd_ok]; auto.
  - intros H tk ws rq Hf Est Hrq. rewrite Hf, Est in H. unfold get_rq in Hrq.
    destruct (nth_error (c_rqs (core_of s)) (N.to_nat (t_rq tk))); inversion Hrq; subst; exact H.
  - intros H tk w1 rv1 Hf Est. rewrite Hf, Est in H. apply andb_true_iff in H. destruct H as [H1 H2].
    apply N.eqb_eq in H1. split; [exact H1|]. destruct rv as [v|]; [|discriminate]. apply N.eqb_eq in H2. subst. reflexivity.
Qed.

Lemma apply_updates_WI us : forall s w need s' need',
  HOK (hq_of s) -> CB s -> WI (core_of s) -> rejects_fresh s w us = true ->
  apply_updates s w us need = Ok (s', need') -> WI (core_of s').
Proof.
  intros s w need s' need' Hok HC HW Hf H.
  refine (proj2 (proj2 (apply_updates_rel_inv
    (fun a b : st => HOK (hq_of a) /\ CB a /\ WI (core_of a) -> HOK (hq_of b) /\ CB b /\ WI (core_of b))
    (fun a w0 l => rejects_fresh a w0 l = true) _ _ _ us s w need s' need' Hf H (conj Hok (conj HC HW))))); clear.
  - intros a P. exact P.
  - intros a b c A B P. exact (B (A P)).
  - intros s w u r s1 n1 Hf Hu. cbn [rejects_fresh] in Hf. rewrite Hu in Hf. apply andb_true_iff in Hf. destruct Hf as [Hf1 Hf2].
    split; [|exact Hf2]. intros (Hok & HC & HW). pose proof (reject_fresh_ok _ _ _ Hf1) as Hup.
    { destruct u; cbn [apply_one upd_ok] in Hu, Hup.
    - split; [eapply task_finished_ok; eassumption|]. split; [eapply task_finished_CB; eassumption|].
      eapply task_finished_WI; [exact HW | exact (cb_s _ HC) | exact Hu].
    - apply bind_ok in Hu. destruct Hu as (sx & Hfl & Hu). inversion Hu; subst.
      split; [eapply task_failed_ok; eassumption|]. split; [eapply task_failed_CB; eassumption|].
      eapply task_failed_WI; [exact Hok | exact HC | exact HW | intros _; exact Hup | exact Hfl].
    - split; [eapply task_running_ok; eassumption|]. split.
      + destruct (task_running_spec _ _ _ _ _ _ (cb_s _ HC) Hu) as [E A]. eapply CB_frame; eassumption.
      + eapply task_running_WI; eassumption.
    - split; [eapply task_running_ok; eassumption|]. split.
      + destruct (task_running_spec _ _ _ _ _ _ (cb_s _ HC) Hu) as [E A]. eapply CB_frame; eassumption.
      + eapply task_running_WI; eassumption.
    - pose proof (task_reject_same _ _ _ _ _ _ Hu) as Hq. split; [eapply hq_same_ok; eassumption|]. split.
      + eapply CB_same; [eapply task_reject_K; [exact (cb_s _ HC) | exact Hu] | exact Hq | exact HC].
      + eapply task_reject_WI; eassumption.
    - apply bind_ok in Hu. destruct Hu as (sx & Hen & Hu). inversion Hu; subst.
      pose proof (request_enabled_same _ _ _ _ _ Hen) as Hq. split; [eapply hq_same_ok; eassumption|]. split.
      + eapply CB_same; [eapply request_enabled_K; exact Hen | exact Hq | exact HC].
      + eapply request_enabled_WI; eassumption. }
Qed.

Lemma on_task_update_WI s w us s' :
  HOK (hq_of s) -> CB s -> WI (core_of s) -> rejects_fresh s w us = true -> on_task_update s w us = Ok s' -> WI (core_of s').
Proof.
  intros Hok HC HW Hf H. unfold on_task_update in H. apply bind_ok in H. destruct H as ([s1 need] & Hu & H).
  pose proof (apply_updates_WI _ _ _ _ _ _ Hok HC HW Hf Hu) as W1.
  destruct (need && _); inversion H; subst; [|exact W1].
  refine (WIX_frame _ (core_of s1) _ eq_refl eq_refl eq_refl eq_refl _). exact W1.
Qed.

Lemma lost_fail_running_WI l : forall s reason s',
  HOK (hq_of s) -> CB s -> WI (core_of s) -> lost_fail_running s reason l = Ok s' -> WI (core_of s').
Proof.
  intros s reason s' Hok HC HW H.
  refine (proj2 (proj2 (lost_fail_running_rel
    (fun a b : st => HOK (hq_of a) /\ CB a /\ WI (core_of a) -> HOK (hq_of b) /\ CB b /\ WI (core_of b)) _ _ _ _ l s reason s' H (conj Hok (conj HC HW))))).
  - intros a P. exact P.
  - intros a b c A B P. exact (B (A P)).
  - intros a id t Ef (Hok0 & HC0 & HW0). destruct (find_task_some _ _ _ Ef) as [_ Hid]. split; [exact Hok0|]. split.
    + eapply CB_same; [| |exact HC0]; [|reflexivity].
      unfold K. cbn. apply (upd_task_frame (core_of a) id t); [exact (cb_s _ HC0) | exact Ef | reflexivity | reflexivity].
    + change (WI (upd_task (core_of a) (with_crash t (t_crash t + 1)))). eapply C_same; [exact HW0 | exact Ef | exact Hid | reflexivity].
  - intros a id k b _ Hf (Hok0 & HC0 & HW0). split; [eapply task_failed_ok; eassumption|]. split; [eapply task_failed_CB; eassumption|].
    eapply task_failed_WI; [exact Hok0 | exact HC0 | exact HW0 | intros X; exfalso; apply X; reflexivity | exact Hf].
Qed.

Lemma lost_release_sn c w wk a p f a_order p_order c2 running retracted :
  WI c -> find_worker (c_workers c) w = Some wk -> w_assign wk = Sn a p f ->
  perm_of_set a_order a = true -> perm_of_set p_order p = true ->
  (do c1 <- lost_prefilled (with_workers c (del_worker (c_workers c) w)) p_order; lost_assigned c1 a_order [] []) = Ok (c2, running, retracted) ->
  WI c2.
Proof.
  intros HW Hw Ea Hpa Hpp H. apply bind_ok in H. destruct H as (c1 & H1 & H2).
  pose proof (WIX_sw _ _ HW) as Sw. destruct (find_worker_some _ _ _ Hw) as [_ Hwi].
  destruct (wi_sets _ _ _ (proj1 (proj2 (proj2 HW))) w wk a p f Hw Ea) as [Sa Sp].
  destruct (perm_of_set_spec _ _ Hpa Sa) as [Nda Ma]. destruct (perm_of_set_spec _ _ Hpp Sp) as [Ndp Mp].
  set (c0 := with_workers c (del_worker (c_workers c) w)) in *.
  assert (Sw0 : wsorted (c_workers c0)) by (apply del_worker_sorted; exact Sw).
  assert (W0 : WI (vcore c0 wk)).
  { eapply (WIX_views _ _ _ HW); [apply set_worker_sorted; exact Sw0 | exact (WIX_sr _ _ HW) | reflexivity | intros i; reflexivity | | intros i; reflexivity].
    intros x. cbn [vcore c0 c_workers upd_worker with_workers]. rewrite find_set_worker, Hwi, find_del_worker by exact Sw.
    destruct (N.eqb x w) eqn:E; [apply N.eqb_eq in E; subst x; symmetry; exact Hw | reflexivity]. }
  destruct (lost_prefilled_V _ _ _ _ _ _ _ Sw0 W0 Ea Ndp (fun i Hi => proj1 (Mp i) Hi) H1) as (Ew1 & wk1 & p1 & Hi1 & Ea1 & Hm1 & W1).
  assert (Sw1 : wsorted (c_workers c1)) by (rewrite Ew1; exact Sw0).
  destruct (lost_assigned_V _ _ _ _ _ _ _ _ _ _ _ Sw1 W1 Ea1 Nda (fun i Hi => proj1 (Ma i) Hi) H2) as (Ew2 & wk2 & a2 & f2 & Hi2 & Ea2 & Hm2 & W2).
  (* the virtual worker is empty *)
  assert (Hfree : wfree (find_worker (c_workers (vcore c2 wk2))) w).
  { intros i. unfold inA, inP, inM. rewrite <- Hwi, <- Hi1, <- Hi2, vcore_find, Ea2.
    rewrite Hm2, Hm1. split; [|split; [|reflexivity]].
    - destruct (tid_mem i a) eqn:E; [|reflexivity]. apply Ma in E. apply tid_mem_In in E. rewrite E. reflexivity.
    - destruct (tid_mem i p) eqn:E; [|reflexivity]. apply Mp in E. apply tid_mem_In in E. rewrite E. reflexivity. }
  pose proof (C_wdel _ _ W2 w Hfree) as W3.
  assert (Ew : c_workers c2 = del_worker (c_workers c) w) by (rewrite Ew2, Ew1; reflexivity).
  eapply (WIX_views _ _ _ W3); [rewrite Ew; exact Sw0 | exact (WIX_sr _ _ W2) | reflexivity | intros i; reflexivity | | intros i; reflexivity].
  intros x. cbn [vcore c_workers upd_worker with_workers].
  rewrite find_del_worker by (apply set_worker_sorted; rewrite Ew; exact Sw0).
  rewrite find_set_worker, Hi2, Hi1, Hwi. destruct (N.eqb x w) eqn:E; [|reflexivity].
  apply N.eqb_eq in E. subst x. rewrite Ew, find_del_worker by exact Sw. rewrite N.eqb_refl. reflexivity.
Qed.

Lemma on_remove_worker_WI s w reason a p t s' :
  HOK (hq_of s) -> CB s -> WI (core_of s) -> on_remove_worker s w reason a p t = Ok s' -> WI (core_of s').
Proof.
  intros Hok HC HW H. unfold on_remove_worker in H.
  destruct (find_worker (c_workers (core_of s)) w) as [wk|] eqn:Hw; [|discriminate].
  apply bind_ok in H. destruct H as ([[c2 running] retracted] & Hr & H).
  set (c := core_of s) in *.
  set (c0 := with_workers c (del_worker (c_workers c) w)) in *.
  pose proof (WIX_sw _ _ HW) as Sw.
  assert (Hs0 : CS c0) by exact (cb_s _ HC).
  assert (A2 : WI c2 /\ keys c2 = K s).
  { destruct (w_assign wk) as [sa sp sf|mt root] eqn:Ea.
    - destruct (negb _) eqn:Ep; [discriminate|]. apply negb_false_iff, andb_true_iff in Ep. destruct Ep as [Pa Pp]. split.
      + eapply (lost_release_sn c w wk); eassumption.
      + apply bind_ok in Hr. destruct Hr as (c1 & Hp & Hr).
        pose proof (lost_prefilled_frame _ _ _ Hs0 Hp) as E1.
        rewrite (lost_assigned_frame _ _ _ _ _ _ _ (CS_keys _ _ E1 Hs0) Hr). exact E1.
    - apply bind_ok in Hr. destruct Hr as (tk & Ht & Hr). apply get_task_find in Ht. cbn [c0 c_tasks with_workers] in Ht.
      destruct (find_task_some _ _ _ Ht) as [_ Hid].
      destruct (t_state tk) as [n|w1 rv1|w1|w1|w1 rv1|ws|] eqn:Est; try discriminate. destruct ws as [|w0 rest] eqn:Ews; [discriminate|].
      assert (Hpm : pl (t_state tk) = PM (w0 :: rest)) by (rewrite Est; reflexivity).
      destruct (N.eqb w w0) eqn:Ew0.
      + apply N.eqb_eq in Ew0. subst w0.
        apply bind_ok in Hr. destruct Hr as (c1 & Hc1 & Hr). apply bind_ok in Hr. destruct Hr as ([qs ret] & _ & Hr).
        inversion Hr; subst c2 running retracted. split.
        * assert (W1 : WIX (xadd x0 mt) c1).
          { eapply (C_relM_reset x0 c mt tk (w :: rest) c0 rest c1); [exact HW | reflexivity | exact Ht | exact Hpm | reflexivity | reflexivity | reflexivity
              | apply del_worker_sorted; exact Sw | | | | | exact Hc1].
            - intros x Hx. cbn [n_mem] in Hx. apply orb_false_iff in Hx. destruct Hx as [E1 _].
              cbn [c0 c_workers with_workers]. rewrite find_del_worker by exact Sw. rewrite E1. reflexivity.
            - intros x _. cbn [c0 c_workers with_workers]. rewrite find_del_worker by exact Sw. destruct (N.eqb x w); auto.
            - intros x Hx. cbn [n_mem] in Hx. cbn [c0 c_workers with_workers]. rewrite find_del_worker by exact Sw.
              destruct (N.eqb x w); [right; reflexivity | left; exact Hx].
            - intros x Hx. cbn [n_mem]. rewrite Hx. apply orb_true_r. }
          refine (WIX_frame _ (upd_task c1 (with_inst (with_state tk (Waiting 0)) (t_inst tk + 1))) _ eq_refl eq_refl eq_refl eq_refl _).
          exact (C_show _ _ W1 x0 mt (with_inst (with_state tk (Waiting 0)) (t_inst tk + 1)) ltac:(xs) ltac:(xs) Hid (or_introl eq_refl)).
        * pose proof (reset_mn_all_frame _ _ _ Hc1) as E1.
          pose proof (reset_mn_all_tasks _ _ _ Hc1) as T1.
          change (keys (upd_task c1 (with_inst (with_state tk (Waiting 0)) (t_inst tk + 1))) = K s).
          transitivity (keys c1); [|exact E1].
          apply (upd_task_frame c1 mt tk); [eapply CS_keys; [exact E1 | exact Hs0] | rewrite T1; exact Ht | reflexivity | reflexivity].
      + inversion Hr; subst c2 running retracted. split.
        * eapply (C_shrinkM x0 c HW mt tk (w0 :: rest) w); [reflexivity | exact Ht | exact Hpm | | exact Hid | reflexivity].
          unfold inM. rewrite Hw, Ea, tid_eqb_refl. reflexivity.
        * apply (upd_task_frame c0 mt tk); [exact Hs0 | exact Ht | reflexivity | reflexivity]. }
  destruct A2 as [W2 E2].
  destruct (negb (perm_of_set t _)); [discriminate|].
  apply bind_ok in H. destruct H as (s3 & H3 & H). apply bind_ok in H. destruct H as (s4 & H4 & H).
  apply bind_ok in H. destruct H as (s6 & H6 & H). apply bind_ok in H. destruct H as (s7 & H7 & H). inversion H; subst s'.
  match type of H3 with lost_retracting ?sx _ _ = _ => set (s2 := sx) in * end.
  assert (HC2 : CB s2) by (eapply CB_same; [exact E2 | reflexivity | exact HC]).
  pose proof (lost_retracting_K _ _ _ _ (cb_s _ HC2) H3) as K3. pose proof (lost_retracting_same _ _ _ _ H3) as Q3.
  assert (HC3 : CB s3) by (eapply CB_same; [exact K3 | exact Q3 | exact HC2]).
  pose proof (process_retracted_K _ _ _ (cb_s _ HC3) H4) as K4. pose proof (process_retracted_hq _ _ _ H4) as Q4.
  assert (HC4 : CB s4) by (eapply CB_same; [exact K4 | exact Q4 | exact HC3]).
  assert (HC5 : CB (broadcast s4 (DLostWorker w))) by (eapply CB_same; [| |exact HC4]; reflexivity).
  destruct (process_worker_lost_active _ _ _ _ _ H6) as [C6 A6].
  assert (HC6 : CB s6) by (eapply CB_frame; [unfold K; rewrite C6; reflexivity | exact A6 | exact HC5]).
  assert (Hok6 : HOK (hq_of s6)).
  { eapply process_worker_lost_ok; [|exact H6]. change (HOK (hq_of s4)). unfold hq_same in Q3. rewrite Q4, Q3. exact Hok. }
  assert (W3 : WI (core_of s3)) by (eapply lost_retracting_WI; [|exact H3]; exact W2).
  pose proof (process_retracted_WI _ _ _ W3 H4) as W4.
  assert (W6 : WI (core_of s6)) by (unfold core_same in C6; rewrite C6; exact W4).
  pose proof (lost_fail_running_WI _ _ _ _ Hok6 HC6 W6 H7) as W7.
  refine (WIX_frame _ (core_of s7) _ eq_refl eq_refl eq_refl eq_refl _). exact W7.
Qed.

Lemma handle_cancel_WI s jid s' : HOK (hq_of s) -> CB s -> WI (core_of s) -> handle_cancel s jid = Ok s' -> WI (core_of s').
Proof.
  intros Hok HC HW H. unfold handle_cancel in H.
  destruct (find_job (hq_jobs s) jid) as [j|] eqn:Ej; [|inversion H; subst; exact HW].
  assert (Hjt : jt s jid = Some (j_tasks j)) by (unfold jt, hq_of; unfold hq_jobs in Ej; rewrite Ej; reflexivity).
  pose proof (find_job_id _ _ _ Ej) as Hid.
  pose proof (jok_sorted _ (Hok _ (find_job_in _ _ _ Ej))) as Hsj.
  assert (Hin : forall x, In x (non_finished_task_ids j) <-> fst x = jid /\ active s x).
  { intros x. rewrite (non_finished_in _ _ Hsj), Hid. split.
    - intros [Hf Ha]. split; [exact Hf|]. exists (j_tasks j). rewrite Hf. auto.
    - intros [Hf (l & Hl & Ha)]. split; [exact Hf|]. rewrite Hf, Hjt in Hl. inversion Hl; subst. exact Ha. }
  pose proof (nodup_non_finished _ Hsj) as Hnd.
  destruct (non_finished_task_ids j) as [|i0 ir] eqn:En; [inversion H; subst; exact HW|].
  rewrite <- En in *. clear En.
  apply bind_ok in H. destruct H as (s1 & H1 & H). apply bind_ok in H. destruct H as (al & _ & H).
  apply bind_ok in H. destruct H as (s2 & H2 & H). inversion H; subst s'.
  destruct (set_cancel_state_active _ _ _ _ H2) as [C2 _]. unfold core_same in C2.
  change (WI (core_of s2)). rewrite C2.
  eapply on_cancel_tasks_WI; [exact HW | exact (cb_s _ HC) | exact (cb_d _ HC) | exact Hnd | | exact H1].
  intros x y Hy Hpx Hf. apply Hin. apply Hin in Hy. split; [rewrite Hf; apply Hy | apply (cb_b _ HC); exact Hpx].
Qed.

Lemma WI_agree c c' : cores_agree c c' -> WI c -> WI c'.
Proof. intros (A & B & C & D). exact (WIX_frame _ _ _ A B C D). Qed.

Lemma get_or_create_rq_WI s r : WI (core_of s) -> WI (core_of (fst (get_or_create_rq s r))).
Proof. apply WI_agree, get_or_create_rq_agree. Qed.

Lemma fold_rqs_WI rqs : forall s l s4 rqis,
  fold_left (fun acc r => let '(s, l) := acc in let '(s', i) := get_or_create_rq s r in (s', l ++ [i])) rqs (s, l) = (s4, rqis) ->
  WI (core_of s) -> WI (core_of s4).
Proof. intros s l s4 rqis H. eapply WI_agree, fold_rqs_agree, H. Qed.

Lemma submit_shape_WI s s' : submit_shape s s' -> WI (core_of s) -> WI (core_of s').
Proof.
  intros [E | (s5 & tasks & s6 & F & H6 & E)] HW; rewrite E; [exact HW|].
  eapply on_new_tasks_WI; [exact (WI_agree _ _ F HW) | exact H6].
Qed.

Lemma handle_submit_array_WI s jobsel ids entries rq prio cl tlim mf s' :
  WI (core_of s) -> handle_submit_array s jobsel ids entries rq prio cl tlim mf = Ok s' -> WI (core_of s').
Proof. intros HW H. exact (submit_shape_WI _ _ (handle_submit_array_shape _ _ _ _ _ _ _ _ _ _ H) HW). Qed.

Lemma handle_submit_graph_WI s jobsel rqs ts mf s' :
  WI (core_of s) -> handle_submit_graph s jobsel rqs ts mf = Ok s' -> WI (core_of s').
Proof. intros HW H. exact (submit_shape_WI _ _ (handle_submit_graph_shape _ _ _ _ _ _ H) HW). Qed.

Theorem step_WI s o s' outs :
  HOK (s_hq s) -> CB (s, []) -> WI (s_core s) -> step_fresh s o = true -> step s o = Ok (s', outs) -> WI (s_core s').
Proof.
  intros Hok HC HW Hf H. destruct (step_cases _ _ _ _ H) as [E|Hc]; [rewrite E; exact HW|].
  change (WI (core_of (s', outs))). destruct o; try contradiction.
  - exact (on_new_worker_WI (s, []) _ _ _ HW Hc).
  - exact (on_remove_worker_WI (s, []) _ _ _ _ _ _ Hok HC HW Hc).
  - exact (handle_submit_array_WI (s, []) _ _ _ _ _ _ _ _ _ HW Hc).
  - exact (handle_submit_graph_WI (s, []) _ _ _ _ _ HW Hc).
  - exact (handle_cancel_WI (s, []) _ _ Hok HC HW Hc).
  - destruct Hc as (p & m & rest & Ep & Eu & Hc). cbn [step_fresh] in Hf. rewrite Ep, Eu in Hf. cbv zeta in Hc. destruct m.
    + match type of Hc with on_task_update ?s1 _ _ = _ => eapply (on_task_update_WI s1); [exact Hok | | exact HW | exact Hf | exact Hc] end.
      eapply CB_same; [| |exact HC]; reflexivity.
    + match type of Hc with on_retract_response ?s1 _ _ = _ => exact (on_retract_response_WI s1 _ _ _ HW Hc) end.
  - exact (run_scheduling_WI (s, []) _ _ HW Hc).
Qed.

Theorem run_WI ops : forall s s' outs,
  HOK (s_hq s) -> fresh (s, []) -> Forall op_wf ops -> CB (s, []) -> WI (s_core s) -> run_fresh s ops = true ->
  run s ops = Ok (s', outs) -> WI (s_core s').
Proof.
  induction ops as [|o r IH]; cbn [run]; intros s s' outs Hok F Hwf HC HW Hf H; [inversion H; subst; exact HW|].
  inversion Hwf as [|? ? Hw1 Hw2]; subst.
  apply bind_ok in H. destruct H as ([s1 o1] & H1 & H). apply bind_ok in H. destruct H as ([s2 o2] & H2 & H). inversion H; subst.
  destruct (run_fresh_cons _ _ _ _ _ Hf H1) as [Hf1 Hf2].
  pose proof (step_CB _ _ _ _ Hok F Hw1 HC H1) as HC1.
  pose proof (step_hq_ok _ _ _ _ Hok H1) as Hok1.
  pose proof (G_step _ _ _ _ F H1) as G1.
  assert (F1 : fresh (s1, [])) by (apply (fresh_outs s1 o1); apply (g_fresh _ _ G1); exact F).
  pose proof (step_WI _ _ _ _ Hok HC HW Hf1 H1) as HW1.
  eapply IH; [exact Hok1 | exact F1 | exact Hw2 | eapply CB_outs; exact HC1 | exact HW1 | exact Hf2 | exact H2].
Qed.

Lemma WI_init r m : WI (s_core (init_sys r m)).
Proof.
  split; [constructor|]. split; [constructor|]. split.
  - constructor.
    + intros w wk a p f E. discriminate.
    + intros w id. reflexivity.
    + intros w id. reflexivity.
    + intros w id. reflexivity.
    + intros id H. exfalso. apply H. reflexivity.
  - intros w H. exfalso. apply H. reflexivity.
Qed.

Theorem reachable_WI ops reserve maxfill s outs :
  Forall op_wf ops -> run_fresh (init_sys reserve maxfill) ops = true -> run (init_sys reserve maxfill) ops = Ok (s, outs) ->
  WI (s_core s) /\ CS (s_core s).
Proof.
  intros Hwf Hf H. destruct (init_facts reserve maxfill) as (Hok0 & F0 & HC0).
  split.
  - exact (run_WI _ _ _ _ Hok0 F0 Hwf HC0 (WI_init reserve maxfill) Hf H).
  - exact (cb_s _ (run_CB _ _ _ _ Hok0 F0 Hwf HC0 H)).
Qed.

Lemma WI_worker_sets_ok c : WI c -> forallb (worker_sets_ok c) (c_workers c) = true.
Proof.
  intros (Sw & _ & H & _). apply forallb_forall. intros wk Hin.
  pose proof (in_find_worker _ _ Sw Hin) as Hw. unfold worker_sets_ok.
  destruct (w_assign wk) as [a p f|mt root] eqn:Ea.
  - apply andb_true_iff. split; apply forallb_forall; intros id Hid; apply tid_mem_In in Hid.
    + pose proof (wi_A _ _ _ H (w_id wk) id) as X. unfold inA, wantA, hv, x0, TV in X. rewrite Hw, Ea, Hid in X.
      destruct (find_task (c_tasks c) id) as [t|]; cbn [option_map plo] in X; [|discriminate].
      destruct (t_state t); cbn [pl] in X; try discriminate; try (symmetry; exact X).
    + pose proof (wi_P _ _ _ H (w_id wk) id) as X. unfold inP, wantP, hv, x0, TV in X. rewrite Hw, Ea, Hid in X.
      destruct (find_task (c_tasks c) id) as [t|]; cbn [option_map plo] in X; [|discriminate].
      destruct (t_state t); cbn [pl] in X; try discriminate; try (symmetry; exact X).
  - pose proof (wi_M _ _ _ H (w_id wk) mt) as X. unfold inM, wantM, hv, x0, TV in X. rewrite Hw, Ea, tid_eqb_refl in X.
    destruct (find_task (c_tasks c) mt) as [t|]; cbn [option_map plo] in X; [|discriminate].
    destruct (t_state t); cbn [pl] in X; try discriminate; try (symmetry; exact X).
Qed.

Lemma WI_task_places c : WI c -> CS c ->
  forall t, In t (c_tasks c) ->
    match t_state t with
    | Assigned w _ | Running w _ => (exists wk a p f, find_worker (c_workers c) w = Some wk /\ w_assign wk = Sn a p f /\ tid_mem (t_id t) a = true)
    | Prefilled w => (exists wk a p f, find_worker (c_workers c) w = Some wk /\ w_assign wk = Sn a p f /\ tid_mem (t_id t) p = true)
    | Retracting _ => forall target rv, find_redirect (c_redirects c) (t_id t) = Some (target, rv) ->
                        exists wk a p f, find_worker (c_workers c) target = Some wk /\ w_assign wk = Sn a p f /\ tid_mem (t_id t) a = true
    | RunningMN ws => forall w, In w ws -> exists wk root, find_worker (c_workers c) w = Some wk /\ w_assign wk = Mn (t_id t) root
    | _ => True
    end.
Proof.
  intros (_ & _ & H & _) Hs t Hin.
  pose proof (in_find_task _ _ (CS_sorted _ Hs) Hin) as Hf.
  assert (HA : forall w, wantA (hv x0 (TV (c_tasks c))) (find_redirect (c_redirects c)) w (t_id t) = true ->
            exists wk a p f, find_worker (c_workers c) w = Some wk /\ w_assign wk = Sn a p f /\ tid_mem (t_id t) a = true).
  { intros w X. rewrite <- (wi_A _ _ _ H) in X. unfold inA in X.
    destruct (find_worker (c_workers c) w) as [wk|]; [|discriminate]. destruct (w_assign wk) as [a p f|] eqn:Ea; [|discriminate].
    exists wk, a, p, f. auto. }
  destruct (t_state t) as [n|w rv|w|w0|w rv|ws|] eqn:Est; try exact I.
  - apply HA. unfold wantA, hv, x0. rewrite (TV_find _ _ _ Hf), Est. cbn. apply N.eqb_refl.
  - assert (X : wantP (hv x0 (TV (c_tasks c))) w (t_id t) = true) by (unfold wantP, hv, x0; rewrite (TV_find _ _ _ Hf), Est; cbn; apply N.eqb_refl).
    rewrite <- (wi_P _ _ _ H) in X. unfold inP in X.
    destruct (find_worker (c_workers c) w) as [wk|]; [|discriminate]. destruct (w_assign wk) as [a p f|] eqn:Ea; [|discriminate].
    exists wk, a, p, f. auto.
  - intros target rv Hr. apply HA. unfold wantA, hv, x0. rewrite (TV_find _ _ _ Hf), Est, Hr. cbn. apply N.eqb_refl.
  - apply HA. unfold wantA, hv, x0. rewrite (TV_find _ _ _ Hf), Est. cbn. apply N.eqb_refl.
  - intros w Hw.
    assert (X : wantM (hv x0 (TV (c_tasks c))) w (t_id t) = true).
    { unfold wantM, hv, x0. rewrite (TV_find _ _ _ Hf), Est. cbn. apply n_mem_In. exact Hw. }
    rewrite <- (wi_M _ _ _ H) in X. destruct (inM_mn _ _ _ X) as (wk & mt & root & E1 & E2 & E3). subst mt. exists wk, root. auto.
Qed.

Theorem worker_sets_invariant : forall ops reserve maxfill s outs,
  Forall op_wf ops -> run_fresh (init_sys reserve maxfill) ops = true -> run (init_sys reserve maxfill) ops = Ok (s, outs) ->
  let c := s_core s in
  forallb (worker_sets_ok c) (c_workers c) = true /\
  (forall t, In t (c_tasks c) ->
     match t_state t with
     | Assigned w _ | Running w _ => (exists wk a p f, find_worker (c_workers c) w = Some wk /\ w_assign wk = Sn a p f /\ tid_mem (t_id t) a = true)
     | Prefilled w => (exists wk a p f, find_worker (c_workers c) w = Some wk /\ w_assign wk = Sn a p f /\ tid_mem (t_id t) p = true)
     | Retracting _ => forall target rv, find_redirect (c_redirects c) (t_id t) = Some (target, rv) ->
                         exists wk a p f, find_worker (c_workers c) target = Some wk /\ w_assign wk = Sn a p f /\ tid_mem (t_id t) a = true
     | RunningMN ws => forall w, In w ws -> exists wk root, find_worker (c_workers c) w = Some wk /\ w_assign wk = Mn (t_id t) root
     | _ => True
     end).
Proof.
  intros ops reserve maxfill s outs Hwf Hf H c.
  destruct (reachable_WI _ _ _ _ _ Hwf Hf H) as [HW Hs].
  split; [apply WI_worker_sets_ok; exact HW | apply WI_task_places; assumption].
Qed.

(** For the queue invariant: a member of a worker's ASSIGNED set is never a Prefilled task. *)
Lemma WI_asg_ok c : WI c -> asg_ok c.
Proof.
  intros HW wk a p f id t Hin Ea Hm Hf w Est.
  pose proof (in_find_worker _ _ (proj1 HW) Hin) as Hw.
  destruct (WI_member_A c _ _ _ _ _ id t HW Hw Ea Hm Hf) as [X|[X _]]; rewrite Est in X; discriminate.
Qed.

Corollary asg_ok_reachable ops reserve maxfill s outs :
  Forall op_wf ops -> run_fresh (init_sys reserve maxfill) ops = true -> run (init_sys reserve maxfill) ops = Ok (s, outs) ->
  asg_ok (s_core s).
Proof. intros Hwf Hf H. apply WI_asg_ok. exact (proj1 (reachable_WI _ _ _ _ _ Hwf Hf H)). Qed.

Corollary reachable_sorted ops reserve maxfill s outs :
  Forall op_wf ops -> run_fresh (init_sys reserve maxfill) ops = true -> run (init_sys reserve maxfill) ops = Ok (s, outs) ->
  let c := s_core s in
  StronglySorted N.lt (map w_id (c_workers c)) /\ StronglySorted tlt (map fst (c_redirects c)) /\
  (forall wk a p f, In wk (c_workers c) -> w_assign wk = Sn a p f -> StronglySorted tlt a /\ StronglySorted tlt p) /\
  (forall id v, find_redirect (c_redirects c) id = Some v -> exists t w, find_task (c_tasks c) id = Some t /\ t_state t = Retracting w) /\
  (forall wk, In wk (c_workers c) -> w_id wk <= c_wcounter c).
Proof.
  intros Hwf Hf H c. subst c. destruct (reachable_WI _ _ _ _ _ Hwf Hf H) as [(Sw & Sr & Hv & Hb) _].
  split; [exact Sw|]. split; [exact Sr|]. split; [|split].
  - intros wk a p f Hin Ea. eapply (wi_sets _ _ _ Hv (w_id wk)); [apply in_find_worker; assumption | exact Ea].
  - intros id v Hr. assert (X : plo (hv x0 (TV (c_tasks (s_core s))) id) = PR) by (apply (wi_R _ _ _ Hv); congruence).
    unfold hv, x0, TV in X. destruct (find_task (c_tasks (s_core s)) id) as [t|]; [|discriminate]. cbn in X.
    destruct (t_state t) eqn:E; try discriminate. eauto.
  - intros wk Hin. apply Hb. rewrite (in_find_worker _ _ Sw Hin). discriminate.
Qed.
