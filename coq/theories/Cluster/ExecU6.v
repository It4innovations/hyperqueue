(** C06 "instance ids strictly increase": ids known to the job layer stay known; [PR] for
    the client requests, for the updates of a worker message (under the protocol invariant) and for
    the two operations that send compute messages built from the final core - the retract response
    and the scheduling round; [step_server_PR]: every operation of the server other than the loss
    of a worker. *)
From HQ Require Import Base.Prelude Cluster.Types Cluster.Core Cluster.Reactor Cluster.Worker Cluster.Server Cluster.Sys Cluster.Monitors Cluster.RejHyp Cluster.ProofsJob Cluster.ProofsMore Cluster.ProofsTerminal Cluster.ProofsStep Cluster.ProofsFinal Cluster.BijBase Cluster.BijCore Cluster.BijHq Cluster.BijSt Cluster.BijReact Cluster.BijFinal Cluster.ProofsOnce Cluster.InvWBase Cluster.NoPanicC1 Cluster.NoPanicL0 Cluster.NoPanicU0 Cluster.NoPanicU1 Cluster.NoPanicU6 Cluster.NoPanicU7 Cluster.NoPanicU8 Cluster.NoPanicU11 Cluster.NoPanicU14 Cluster.NoPanicU17 Cluster.InvWX1 Cluster.NoPanicU9 Cluster.InvBundle Cluster.NoPanicU12 Cluster.ExecU1 Cluster.ExecU3 Cluster.ExecU5.
From HQ Require Import Cluster.StepShape.
From HQ Require Import Cluster.ModelFacts.
From Coq Require Import ZArith Lia Sorting.Sorted.
Local Open Scope N_scope.

Arguments N.add : simpl never.
Arguments N.sub : simpl never.

Lemma seen_new_job h x jb : j_id jb = h_counter h -> seen h x = true ->
  seen (mkHq (set_job (h_jobs h) jb) (h_counter h + 1)) x = true.
Proof.
  intros Ej H. unfold seen in *. cbn [h_jobs h_counter]. apply andb_true_iff in H. destruct H as [Ha Hb]. apply N.ltb_lt in Ha.
  assert (E : N.ltb (fst x) (h_counter h + 1) = true) by (apply N.ltb_lt; lia). rewrite E. cbn [andb].
  rewrite find_job_set, Ej. destruct (N.eqb (fst x) (h_counter h)) eqn:E1; [apply N.eqb_eq in E1; lia | exact Hb].
Qed.

Lemma seen_counter h x n : h_counter h <= n -> seen h x = true -> seen (mkHq (h_jobs h) n) x = true.
Proof.
  intros Hn H. unfold seen in *. cbn [h_jobs h_counter]. apply andb_true_iff in H. destruct H as [Ha Hb]. apply N.ltb_lt in Ha.
  assert (E : N.ltb (fst x) n = true) by (apply N.ltb_lt; lia). rewrite E. exact Hb.
Qed.

Lemma seen_attach h x j j' ids : find_job (h_jobs h) (j_id j) = Some j -> attach_ids j ids = Ok j' -> seen h x = true ->
  seen (mkHq (set_job (h_jobs h) j') (h_counter h)) x = true.
Proof.
  intros Ef Ha H. destruct (attach_ids_find _ _ _ Ha) as [Ei Ft]. unfold seen in *. cbn [h_jobs h_counter].
  apply andb_true_iff in H. destruct H as [Ha' Hb]. rewrite Ha'. cbn [andb]. rewrite find_job_set, Ei.
  destruct (N.eqb (fst x) (j_id j)) eqn:E; [|exact Hb]. apply N.eqb_eq in E. rewrite E, Ef in Hb. rewrite Ft.
  destruct (n_mem (snd x) ids); [reflexivity | exact Hb].
Qed.

Lemma seen_del h x jid : seen h x = true -> seen (mkHq (del_job (h_jobs h) jid) (h_counter h)) x = true.
Proof.
  intros H. unfold seen in *. cbn [h_jobs h_counter]. apply andb_true_iff in H. destruct H as [Ha Hb]. rewrite Ha. cbn [andb].
  destruct (N.eq_dec (fst x) jid) as [E|E]; [rewrite E, find_job_del_same; reflexivity | rewrite find_job_del by exact E; exact Hb].
Qed.

Section Pass.
Variable A : wid -> dmsg -> Prop.
Hypothesis HA : forall w m, quietm m -> A w m.
Notation PR := (PR A).
Notation PR_refl := (PR_refl A).
Notation PR_trans := (PR_trans A).
Notation PR_core := (PR_core A).
Notation PR_same := (PR_same A).

Lemma get_or_create_rq_PR s r s' i : get_or_create_rq s r = (s', i) -> PR s s'.
Proof.
  unfold get_or_create_rq. intros H. cbv zeta in H. destruct (rq_index _ r 0); inversion H; subst; [apply PR_refl|].
  eapply PR_trans; [apply (PR_broadcast A s (DNewRq (N.of_nat (length (c_rqs (core_of s)))) r)); intros w; apply HA; exact I | apply PR_core].
Qed.

Lemma fold_rqs_PR rqs : forall s l s' l',
  fold_left (fun acc r => let '(s, l) := acc in let '(s', i) := get_or_create_rq s r in (s', l ++ [i])) rqs (s, l) = (s', l') -> PR s s'.
Proof.
  induction rqs as [|r rest IH]; cbn [fold_left]; intros s l s' l' H; [inversion H; subst; apply PR_refl|].
  destruct (get_or_create_rq s r) as [s1 i] eqn:Eg.
  eapply PR_trans; [eapply get_or_create_rq_PR; exact Eg | eapply IH; exact H].
Qed.

Lemma PR_hq s s' : s_procs (fst s') = s_procs (fst s) -> LS s' = LS s -> SM s s' -> PR s s'.
Proof.
  intros Ep El Es. split; [exact El|]. split; [|exact Es]. intros w p' H. rewrite Ep in H. exists p', []. rewrite app_nil_r. repeat split; auto.
Qed.

Lemma submit_tail_PR s4 jid ids tasks s' : submit_tail s4 jid ids tasks = Ok s' -> PR s4 s'.
Proof.
  unfold submit_tail. intros H. apply bind_ok in H. destruct H as (j & Hj & H). apply bind_ok in H. destruct H as (j' & Ha & H).
  apply bind_ok in H. destruct H as (s6 & H6 & H).
  assert (Ej : find_job (h_jobs (s_hq (fst s4))) (j_id j) = Some j).
  { unfold hq_get_job in Hj. destruct (find_job (h_jobs (s_hq (fst s4))) jid) as [j0|] eqn:E; [|discriminate]. inversion Hj; subst j0.
    rewrite (find_job_id _ _ _ E). exact E. }
  eapply PR_trans; [apply (PR_hq s4 (hq_set_job s4 j')); [reflexivity | reflexivity|]|].
  { intros x Hx. unfold hq_of, hq_set_job. cbn [fst with_hq s_hq]. eapply seen_attach; [exact Ej | exact Ha | exact Hx]. }
  eapply PR_trans; [eapply on_new_tasks_PR; [exact HA | exact H6]|].
  apply PR_job; [eapply submit_ok_resp_CP; exact H | eapply submit_ok_resp_LS; exact H|].
  intros x Hx. unfold submit_ok_resp in H. apply bind_ok in H. destruct H as (jx & _ & H). inversion H; subst. exact Hx.
Qed.

Lemma submit_job_PR s jid is_new n mf : submit_target s jid is_new -> PR s (submit_job s jid is_new n mf).
Proof.
  unfold submit_target, submit_job. destruct is_new; [intros ->|intros _]; cbv zeta; [|apply PR_emit; intros; discriminate].
  apply PR_hq; [reflexivity | unfold LS; cbn; rewrite launches_app; cbn; apply app_nil_r|].
  intros x Hx. unfold hq_of, hq_with, hq_jobs, hq_counter, emit. cbn [fst snd with_hq s_hq h_jobs h_counter].
  apply (seen_new_job (s_hq (fst s)) x); [reflexivity | exact Hx].
Qed.

Lemma handle_submit_array_PR s jobsel ids entries rq prio cl tlim mf s' :
  handle_submit_array s jobsel ids entries rq prio cl tlim mf = Ok s' -> PR s s'.
Proof.
  intros H. destruct (handle_submit_array_spec _ _ _ _ _ _ _ _ _ _ H) as [(c & a & ->)|(jid & is_new & ids' & s4 & rqi & Htg & _ & Erq & Ht)];
    [apply PR_emit; intros; discriminate|].
  eapply PR_trans; [apply submit_job_PR; exact Htg|].
  eapply PR_trans; [exact (get_or_create_rq_PR _ _ _ _ Erq) | exact (submit_tail_PR _ _ _ _ _ Ht)].
Qed.

Lemma handle_submit_graph_PR s jobsel rqs ts mf s' : handle_submit_graph s jobsel rqs ts mf = Ok s' -> PR s s'.
Proof.
  intros H. destruct (handle_submit_graph_spec _ _ _ _ _ _ H) as [(r & ->)|(jid & is_new & s4 & rqis & tasks & Htg & Erq & _ & Ht)];
    [apply PR_emit; intros; discriminate|].
  eapply PR_trans; [apply submit_job_PR; exact Htg|].
  eapply PR_trans; [exact (fold_rqs_PR _ _ _ _ _ Erq) | exact (submit_tail_PR _ _ _ _ _ Ht)].
Qed.

Lemma handle_open_PR s mf s' : handle_open s mf = Ok s' -> PR s s'.
Proof.
  unfold handle_open. intros H. inversion H; subst. apply PR_hq; [reflexivity | unfold LS; cbn; rewrite !launches_app; cbn; rewrite !app_nil_r; reflexivity|].
  intros x Hx. unfold hq_of, hq_with, hq_jobs, hq_counter, emit. cbn [fst snd with_hq s_hq h_jobs h_counter].
  apply (seen_new_job (s_hq (fst s)) x); [reflexivity | exact Hx].
Qed.

Lemma handle_close_PR s jid s' : handle_close s jid = Ok s' -> PR s s'.
Proof.
  unfold handle_close. intros H. destruct (find_job _ jid) as [j|] eqn:Ef; [|inversion H; subst; apply PR_emit; intros; discriminate].
  destruct (j_open j); [|inversion H; subst; apply PR_emit; intros; discriminate].
  apply bind_ok in H. destruct H as (s1 & H1 & H). inversion H; subst.
  eapply PR_trans; [|apply (PR_emit A s1 (OResp (RClose 0))); intros; discriminate].
  eapply PR_trans; [|apply PR_job; [eapply check_termination_CP; exact H1 | eapply check_termination_LS; exact H1 | eapply SM_chg; eapply check_termination_chg; exact H1]].
  apply PR_hq; [reflexivity | unfold LS, emit, hq_set_job; cbn [snd]; rewrite launches_app; cbn; apply app_nil_r|].
  intros x Hx. unfold hq_of, emit, hq_set_job in *. cbn [fst with_hq s_hq]. unfold seen in *. cbn [h_jobs h_counter].
  apply andb_true_iff in Hx. destruct Hx as [Ha Hb]. rewrite Ha. cbn [andb]. rewrite find_job_set. cbn [j_id].
  pose proof (find_job_id _ _ _ Ef) as Eid. unfold hq_jobs in Ef.
  destruct (N.eqb (fst x) (j_id j)) eqn:E; [|exact Hb]. apply N.eqb_eq in E. rewrite E, Eid, Ef in Hb. cbn [j_tasks]. exact Hb.
Qed.

Lemma handle_cancel_PR s jid s' : handle_cancel s jid = Ok s' -> PR s s'.
Proof.
  unfold handle_cancel. intros H. destruct (find_job _ jid) as [j|]; [|inversion H; subst; apply PR_emit; intros; discriminate].
  cbv zeta in H. destruct (non_finished_task_ids j) as [|i ids]; [inversion H; subst; apply PR_emit; intros; discriminate|].
  apply bind_ok in H. destruct H as (s1 & H1 & H). apply bind_ok in H. destruct H as (al & _ & H).
  apply bind_ok in H. destruct H as (s2 & H2 & H). inversion H; subst.
  eapply PR_trans; [eapply on_cancel_tasks_PR; [exact HA | exact H1]|].
  eapply PR_trans; [apply PR_job; [eapply set_cancel_state_CP; exact H2 | eapply set_cancel_state_LS; exact H2 | eapply SM_chg; exact (proj1 (set_cancel_state_chg _ _ _ _ H2))]|].
  apply PR_emit. intros; discriminate.
Qed.

Lemma handle_forget_PR s jid s' : handle_forget s jid = Ok s' -> PR s s'.
Proof.
  unfold handle_forget. intros H. destruct (find_job _ jid) as [j|]; [|inversion H; subst; apply PR_emit; intros; discriminate].
  apply bind_ok in H. destruct H as (na & _ & H). destruct (negb (j_open j) && na); inversion H; subst; [|apply PR_emit; intros; discriminate].
  apply PR_hq; [reflexivity | unfold LS, emit, hq_with; cbn [snd]; rewrite launches_app; cbn; apply app_nil_r|].
  intros x Hx. unfold hq_of, emit, hq_with, hq_jobs, hq_counter. cbn [fst with_hq s_hq]. apply seen_del. exact Hx.
Qed.
End Pass.

Section Upd.
Variable A : wid -> dmsg -> Prop.
Hypothesis HA : forall w m, quietm m -> A w m.

Lemma apply_one_PR s w u r s' b : SP x0 s (pum_us w (u :: r)) [] -> apply_one s w u = Ok (s', b) -> PR A s s'.
Proof.
  intros HS H. destruct u as [id|id k|id rv|id rv|id rv0|rq rv]; cbn [apply_one] in H.
  - eapply task_finished_PR; [exact HA | exact H].
  - apply bind_ok in H. destruct H as (s2 & H2 & H). inversion H; subst. eapply task_failed_PR; [exact HA | exact H2].
  - eapply task_running_PR; exact H.
  - eapply task_running_PR; exact H.
  - eapply task_reject_PR; [exact HA | | exact H]. intros t w1 Ef Est.
    destruct (pum_us_proc _ _ _ _ _ HS) as (p & Hp).
    pose proof (head_item _ _ _ _ _ _ _ _ _ HS Ef eq_refl Hp) as Hl. cbn [uitem_of] in Hl. rewrite sel_same in Hl. cbn [app] in Hl.
    destruct (LS_rej _ _ _ _ _ Hl) as (rv & Ev & _ & _). apply view_VA in Ev. congruence.
  - apply bind_ok in H. destruct H as (s2 & H2 & H). inversion H; subst. eapply request_enabled_PR; exact H2.
Qed.

Lemma apply_updates_PR us : forall s w need s' need', SP x0 s (pum_us w us) [] -> apply_updates s w us need = Ok (s', need') -> PR A s s'.
Proof.
  apply (apply_updates_rel_inv (PR A) (fun s w us => SP x0 s (pum_us w us) []) (PR_refl A) (PR_trans A)).
  intros s w u r s' n HS H. split; [eapply apply_one_PR; eassumption | eapply apply_one_SP; eassumption].
Qed.

Lemma on_task_update_PR s w us s' : SP x0 s (pum_us w us) [] -> on_task_update s w us = Ok s' -> PR A s s'.
Proof.
  unfold on_task_update. intros HS H. apply bind_ok in H. destruct H as ([s1 need] & H1 & H).
  pose proof (apply_updates_PR _ _ _ _ _ _ HS H1) as R1.
  destruct (need && _); inversion H; subst; [|exact R1]. eapply PR_trans; [exact R1 | apply PR_ask].
Qed.
End Upd.

Definition AC (c : core) (T : tid -> Prop) : wid -> dmsg -> Prop := fun _ m =>
  match m with
  | DCompute cts => forall ct, In ct cts -> T (ct_id ct) /\ exists t, find_task (c_tasks c) (ct_id ct) = Some t /\ ct_inst ct = t_inst t
  | _ => True
  end.
Lemma AC_quiet c T w m : quietm m -> AC c T w m.
Proof. destruct m; cbn; auto. intros []. Qed.
Lemma AC_weaken c (T T' : tid -> Prop) w m : (forall x, T x -> T' x) -> AC c T w m -> AC c T' w m.
Proof. intros HT. destruct m; cbn [AC]; auto. intros H ct Hin. destruct (H ct Hin) as [A B]. auto. Qed.
Lemma AC_ct c T w add ct : Forall (AC c T w) add -> In ct (dcts add) ->
  T (ct_id ct) /\ exists t, find_task (c_tasks c) (ct_id ct) = Some t /\ ct_inst ct = t_inst t.
Proof.
  intros H Hin. unfold dcts in Hin. apply in_flat_map in Hin. destruct Hin as (m & Hm & Hc). rewrite Forall_forall in H. specialize (H m Hm).
  destruct m; try destruct Hc. exact (H ct Hc).
Qed.

Lemma ctasks_of_spec c l : forall cts, ctasks_of c l = Ok cts ->
  forall ct, In ct cts -> In (ct_id ct) (map fst l) /\ exists t, find_task (c_tasks c) (ct_id ct) = Some t /\ ct_inst ct = t_inst t.
Proof.
  induction l as [|[id rv] r IH]; cbn [ctasks_of]; intros cts H ct Hin; [inversion H; subst; destruct Hin|].
  apply bind_ok in H. destruct H as (t & Ht & H). apply bind_ok in H. destruct H as (rest & Hr & H). inversion H; subst.
  apply get_task_find in Ht. destruct (find_task_some _ _ _ Ht) as [_ Hid].
  destruct Hin as [<-|Hin].
  - cbn [ctask_of ct_id ct_inst map fst]. rewrite Hid. split; [left; reflexivity | eauto].
  - destruct (IH _ Hr ct Hin) as [A B]. split; [right; exact A | exact B].
Qed.
Lemma ctasks_prefill_spec c l : forall cts, ctasks_prefill c l = Ok cts ->
  forall ct, In ct cts -> In (ct_id ct) l /\ exists t, find_task (c_tasks c) (ct_id ct) = Some t /\ ct_inst ct = t_inst t.
Proof.
  induction l as [|id r IH]; cbn [ctasks_prefill]; intros cts H ct Hin; [inversion H; subst; destruct Hin|].
  apply bind_ok in H. destruct H as (t & Ht & H). apply bind_ok in H. destruct H as (rest & Hr & H). inversion H; subst.
  apply get_task_find in Ht. destruct (find_task_some _ _ _ Ht) as [_ Hid].
  destruct Hin as [<-|Hin].
  - cbn [ctask_of ct_id ct_inst]. rewrite Hid. split; [left; reflexivity | eauto].
  - destruct (IH _ Hr ct Hin) as [A B]. split; [right; exact A | exact B].
Qed.

Lemma rrs_ids w ids : forall c acc c' acc', retract_response_states c w ids acc = (c', acc') ->
  forall tg l ir, In (tg, l) acc' -> In ir l -> In (fst ir) ids \/ exists l0, In (tg, l0) acc /\ In ir l0.
Proof.
  induction ids as [|id r IH]; cbn [retract_response_states]; intros c acc c' acc' H tg l ir Hin Hir; [inversion H; subst; right; eauto|].
  assert (Hskip : forall c1, retract_response_states c1 w r acc = (c', acc') -> In (fst ir) (id :: r) \/ exists l0, In (tg, l0) acc /\ In ir l0).
  { intros c1 H1. destruct (IH _ _ _ _ H1 tg l ir Hin Hir) as [X|X]; [left; right; exact X | right; exact X]. }
  destruct (find_task (c_tasks c) id) as [t|]; [|apply (Hskip c); exact H].
  destruct (t_state t); try (apply (Hskip c); exact H).
  destruct (N.eqb w w0); [|apply (Hskip c); exact H].
  destruct (find_redirect (c_redirects c) id) as [[target rv]|]; [|eapply Hskip; exact H].
  destruct (IH _ _ _ _ H tg l ir Hin Hir) as [X|(l0 & Hl0 & Hi0)]; [left; right; exact X|].
  destruct (group_add_in _ _ _ _ _ Hl0) as [Hold|(-> & l1 & -> & Hl1)]; [right; eauto|].
  apply in_app_iff in Hi0. destruct Hi0 as [Hi0|[<-|[]]]; [|left; left; reflexivity].
  destruct Hl1 as [->|Hl1]; [destruct Hi0 | right; eauto].
Qed.

Lemma send_redirected_PR (T : tid -> Prop) gs : forall s s', send_redirected s gs = Ok s' ->
  (forall tg l ir, In (tg, l) gs -> In ir l -> T (fst ir)) -> PR (AC (core_of s) T) s s'.
Proof.
  induction gs as [|[target ts] r IH]; cbn [send_redirected]; intros s s' H HT; [inversion H; subst; apply PR_refl|].
  apply bind_ok in H. destruct H as (cts & Hc & H). apply bind_ok in H. destruct H as (s1 & H1 & H).
  eapply PR_trans; [eapply PR_send; [exact H1|]|].
  - cbn [AC]. intros ct Hin. destruct (ctasks_of_spec _ _ _ Hc ct Hin) as [Hi Ht]. split; [|exact Ht].
    apply in_map_iff in Hi. destruct Hi as (ir & <- & Hir). eapply HT; [left; reflexivity | exact Hir].
  - rewrite <- (send_worker_core _ _ _ _ H1). eapply IH; [exact H | intros tg l ir Hin Hir; eapply HT; [right; exact Hin | exact Hir]].
Qed.

Lemma on_retract_response_PR s w ids s' : on_retract_response s w ids = Ok s' -> PR (AC (core_of s') (fun x => In x ids)) s s'.
Proof.
  unfold on_retract_response. intros H. destruct (retract_response_states _ w ids []) as [c' groups] eqn:E.
  apply bind_ok in H. destruct H as (s2 & H & H2).
  assert (X2 : PR (AC c' (fun x => In x ids)) s s2).
  { eapply PR_trans; [apply (PR_core _ s c')|]. eapply (send_redirected_PR (fun x => In x ids) groups (st_core s c')); [exact H|].
    intros tg l ir Hin Hir. destruct (rrs_ids _ _ _ _ _ _ E tg l ir Hin Hir) as [X|(l0 & [] & _)]. exact X. }
  pose proof (send_redirected_core _ _ _ H) as Ec. cbn [core_of st_core with_core s_core fst] in Ec.
  destruct (retract_wakes _ _ _ _); inversion H2; subst s'; clear H2.
  - eapply PR_trans; [|apply PR_ask].
    replace (AC (core_of (ask_scheduling s2)) (fun x => In x ids)) with (AC c' (fun x => In x ids)); [exact X2|].
    change (core_of (ask_scheduling s2)) with (with_flag (core_of s2) true). cbn [core_of]. rewrite Ec. reflexivity.
  - cbn [core_of]. rewrite Ec. exact X2.
Qed.

Lemma send_mapping_PR m : forall s s', send_mapping s m = Ok s' -> PR (AC (core_of s) (fun _ => True)) s s'.
Proof.
  induction m as [|u r IH]; cbn [send_mapping]; intros s s' H; [inversion H; subst; apply PR_refl|].
  apply bind_ok in H. destruct H as (s1 & H1 & H). apply bind_ok in H. destruct H as (cts1 & Hc1 & H).
  apply bind_ok in H. destruct H as (cts2 & Hc2 & H). apply bind_ok in H. destruct H as (s2 & H2 & H).
  assert (E1 : core_of s1 = core_of s) by (destruct (wu_retracts u); [inversion H1; reflexivity | eapply send_worker_core; exact H1]).
  assert (E2 : core_of s2 = core_of s) by (rewrite <- E1; destruct (cts1 ++ cts2); [inversion H2; reflexivity | eapply send_worker_core; exact H2]).
  eapply PR_trans; [|rewrite <- E2; eapply IH; exact H].
  eapply PR_trans.
  - destruct (wu_retracts u); [inversion H1; subst; apply PR_refl | eapply PR_send; [exact H1 | exact I]].
  - destruct (cts1 ++ cts2) eqn:Ec; [inversion H2; subst; apply PR_refl|]. eapply PR_send; [exact H2|]. rewrite <- Ec.
    cbn [AC]. intros ct Hin. split; [exact I|]. rewrite E1 in Hc1, Hc2. apply in_app_iff in Hin.
    destruct Hin as [Hin|Hin]; [exact (proj2 (ctasks_prefill_spec _ _ _ Hc1 ct Hin)) | exact (proj2 (ctasks_of_spec _ _ _ Hc2 ct Hin))].
Qed.

Lemma send_mn_PR l : forall s s', send_mn s l = Ok s' -> PR (AC (core_of s) (fun _ => True)) s s'.
Proof.
  induction l as [|id r IH]; cbn [send_mn]; intros s s' H; [inversion H; subst; apply PR_refl|].
  apply bind_ok in H. destruct H as (t & Ht & H). destruct (t_state t); try discriminate. destruct ws; [discriminate|].
  apply bind_ok in H. destruct H as (s1 & H1 & H). apply get_task_find in Ht. destruct (find_task_some _ _ _ Ht) as [_ Hid].
  eapply PR_trans; [eapply PR_send; [exact H1|] | rewrite <- (send_worker_core _ _ _ _ H1); eapply IH; exact H].
  cbn [AC]. intros ct [<-|[]]. split; [exact I|]. cbn [ctask_of ct_id ct_inst]. rewrite Hid. eauto.
Qed.

Lemma run_scheduling_PR s sol s' : run_scheduling s sol = Ok s' -> PR (AC (core_of s') (fun _ => True)) s s'.
Proof.
  unfold run_scheduling. intros H. cbv zeta in H. destruct (negb (perm_of_set _ _)); [discriminate|].
  apply bind_ok in H. destruct H as ([c1 m1] & H1 & H).
  apply bind_ok in H. destruct H as ([c2 mn] & H2 & H).
  apply bind_ok in H. destruct H as ([c3 m3] & H3 & H).
  apply bind_ok in H. destruct H as (s1 & H4 & H).
  apply bind_ok in H. destruct H as (s2 & H5 & H). inversion H; subst.
  assert (E4 : core_of s1 = c3) by (rewrite (send_mapping_core _ _ _ H4); reflexivity).
  assert (E5 : core_of s2 = c3) by (rewrite (send_mn_core _ _ _ H5); exact E4).
  apply (PR_weaken (AC c3 (fun _ => True))).
  { intros w m Hm. destruct m; cbn [AC] in *; auto. cbn [core_of st_core with_core s_core fst c_tasks with_flag]. rewrite E5. exact Hm. }
  eapply PR_trans; [apply (PR_core _ s c3)|].
  eapply PR_trans; [exact (send_mapping_PR _ _ _ H4)|].
  eapply PR_trans; [rewrite <- E4; exact (send_mn_PR _ _ _ H5)|]. apply PR_same; reflexivity.
Qed.

Definition server_op (o : op) : Prop :=
  match o with OpSubmit _ _ _ _ _ _ _ _ | OpSubmitG _ _ _ _ | OpOpen _ | OpClose _ | OpCancel _ | OpForget _ | OpDUp _ | OpSched _ => True | _ => False end.

Lemma server_op_dec o : server_op o \/ ~ server_op o.
Proof. destruct o; cbn; tauto. Qed.

(** the state the server function runs on: [s], or [s] with the head message of an up channel taken *)
Definition popped (s : sys) (o : op) (s1 : sys) : Prop :=
  s1 = s \/ exists w p m rest, o = OpDUp w /\ find_proc (s_procs s) w = Some p /\ p_up p = m :: rest /\
                              s1 = with_procs s (set_proc (s_procs s) (wp_up p rest)).

Lemma popped_proc s o s1 : popped s o s1 -> s_hq s1 = s_hq s /\
  forall w p1, find_proc (s_procs s1) w = Some p1 -> exists p hd, find_proc (s_procs s) w = Some p /\
    p_backlog p1 = p_backlog p /\ p_running p1 = p_running p /\ p_down p1 = p_down p /\ p_up p = hd ++ p_up p1.
Proof.
  intros [->|(w & p & m & rest & _ & Hp & Eu & ->)]; (split; [reflexivity|]); intros w' p1 H1; [exists p1, []; auto|].
  cbn [s_procs with_procs] in H1. rewrite find_set_proc in H1. cbn [wp_up wp_upd p_id] in H1.
  rewrite (proj2 (find_proc_some _ _ _ Hp)) in H1.
  destruct (N.eqb w' w) eqn:E; [|exists p1, []; auto]. apply N.eqb_eq in E. subst w'. inversion H1; subst p1. exists p, [m]. rewrite Eu. auto.
Qed.

(** the compute entries such an operation sends are for tasks given back in the message it
    processes, or it is a scheduling round *)
Definition sent (s : sys) (o : op) (x : tid) : Prop := step_T s o x \/ exists sol, o = OpSched sol.

Theorem step_server_PR s o s' outs : server_op o -> INV s -> PROTO s -> step s o = Ok (s', outs) ->
  exists s1 o1, popped s o s1 /\ launches o1 = [] /\ PR (AC (s_core s') (sent s o)) (s1, o1) (s', outs).
Proof.
  intros Ho HI HP H.
  set (R := fun a b : st => INV (fst a) -> PROTO (fst a) ->
              exists s1 o1, popped (fst a) o s1 /\ launches o1 = [] /\ PR (AC (core_of b) (sent (fst a) o)) (s1, o1) b).
  assert (Hq : forall s0 b, PR quietA (s0, []) b -> R (s0, []) b).
  { intros s0 b HR _ _. exists s0, []. split; [left; reflexivity|]. split; [reflexivity|].
    eapply PR_weaken; [|exact HR]. intros w m. apply AC_quiet. }
  assert (HA : forall w m, quietm m -> quietA w m) by (intros w m Hm; exact Hm).
  refine (step_walk R (eq o) _ _ _ _ _ _ _ _ _ _ _ _ _ _ _ _ s o s' outs eq_refl H HI HP); clear s s' outs H HI HP.
  - intros s rs g s' ->. destruct Ho.
  - intros s w reason a p t pw s' ->. destruct Ho.
  - intros s o0 c a _. apply Hq. apply PR_same; reflexivity.
  - intros s job ids entries rq prio cl tlim mf s' _ H. apply Hq. exact (handle_submit_array_PR _ HA _ _ _ _ _ _ _ _ _ _ H).
  - intros s job rqs ts mf s' _ H. apply Hq. exact (handle_submit_graph_PR _ HA _ _ _ _ _ _ H).
  - intros s mf s' _ H. apply Hq. exact (handle_open_PR _ _ _ _ H).
  - intros s j s' _ H. apply Hq. exact (handle_close_PR _ _ _ _ H).
  - intros s j s' _ H. apply Hq. exact (handle_cancel_PR _ HA _ _ _ H).
  - intros s j s' _ H. apply Hq. exact (handle_forget_PR _ _ _ _ H).
  - intros s w p m rest s' Eo Hp Eu H HI HP. cbn [fst core_of] in *.
    pose proof (SP_pop s w p m rest [OUp w m] HP (INV_UH _ HI) Hp Eu) as S1.
    eexists _, [OUp w m]. split; [right; exists w, p, m, rest; auto|]. split; [reflexivity|]. destruct m as [us|ids].
    + eapply PR_weaken; [|exact (on_task_update_PR _ HA _ _ _ _ S1 H)]. intros w0 m. apply AC_quiet.
    + eapply PR_weaken; [|exact (on_retract_response_PR _ _ _ _ H)]. intros w0 m. apply AC_weaken. intros x Hx. left. subst o. cbn [step_T].
      rewrite Hp, Eu. cbn [gives flat_map]. rewrite app_nil_r. exact Hx.
  - intros s sol s' Eo _ H _ _. cbn [fst core_of]. exists s, []. split; [left; reflexivity|]. split; [reflexivity|].
    eapply PR_weaken; [|exact (run_scheduling_PR _ _ _ H)]. intros w0 m. apply AC_weaken. intros x _. right. eauto.
  - intros s lj ->. destruct Ho.
  - intros s w order p m rest p' ls ->. destruct Ho.
  - intros s w t how p p' ls ->. destruct Ho.
  - intros s w t p ->. destruct Ho.
  - intros s ->. destruct Ho.
Qed.
