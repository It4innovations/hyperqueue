(** The queue invariant, part 9: new tasks and the client requests; then every operation of
    [Sys.step], every history, and the statement in terms of the monitor predicates
    ([queues_live_ok], [in_ready], [in_prefill]). *)
From HQ Require Import Base.Prelude Cluster.Types Cluster.Core Cluster.Reactor Cluster.Worker Cluster.Server Cluster.Sys Cluster.Monitors Cluster.ProofsJob Cluster.ProofsMore Cluster.ProofsTerminal Cluster.ProofsStep Cluster.ProofsFinal Cluster.BijBase Cluster.BijCore Cluster.BijHq Cluster.BijSt Cluster.BijReact Cluster.BijFinal Cluster.FrameGen Cluster.CrashFrame Cluster.InvDBase Cluster.InvQBase Cluster.InvQTake Cluster.InvQInv Cluster.InvQOps Cluster.InvQReact Cluster.InvQReact2 Cluster.InvQServer Cluster.InvQSched.
From HQ Require Import Cluster.StepShape.
From HQ Require Import Cluster.ModelFacts.
From Coq Require Import ZArith Lia Sorting.Sorted.
Local Open Scope N_scope.

Arguments N.add : simpl never.
Arguments N.sub : simpl never.

Lemma register_deps_QI ex Z deps : forall c id kept count c' kept' count',
  QI ex Z c -> register_deps c id deps kept count = (c', kept', count') ->
  QI ex Z c' /\ (forall x, find_task (c_tasks c') x = None <-> find_task (c_tasks c) x = None) /\ c_rqs c' = c_rqs c.
Proof.
  induction deps as [|d r IH]; cbn [register_deps]; intros c id kept count c' kept' count' V H.
  - inversion H; subst. split; [exact V | split; [reflexivity | reflexivity]].
  - destruct (find_task (c_tasks c) d) as [dep|] eqn:Ef; [|eapply IH; eassumption].
    pose proof (find_task_id _ _ _ Ef) as Hid.
    assert (V1 : QI ex Z (upd_task c (with_consumers dep (tid_insert id (t_consumers dep))))).
    { qi_simpl. eapply QV_task0; [exact V | exact Ef | exact Hid | reflexivity | reflexivity | reflexivity | reflexivity | |].
      - intros v Hv. cbn. apply (qv_red _ _ _ _ _ _ V) in Hv. destruct Hv as (En & t0 & w & Hf0 & Hw). rewrite Ef in Hf0. inversion Hf0; subst. eauto.
      - cbn. intros Hfin. eapply qv_fin; eassumption. }
    destruct (IH _ _ _ _ _ _ _ V1 H) as (I1 & I2 & I3). split; [exact I1 | split; [|exact I3]].
    intros x. rewrite I2. cbn [c_tasks upd_task with_tasks]. rewrite find_set_task. cbn [t_id with_consumers]. rewrite Hid.
    destruct (tid_eqb x d) eqn:E; [|reflexivity]. apply tid_eqb_eq in E. subst x. split; [discriminate | congruence].
Qed.

Lemma add_ready_ret_live ex Z ts qs rs rqs t' qs' r :
  QV ex Z ts qs rs rqs -> add_ready_task qs t' = Ok (qs', r) -> forall x, In x r -> exists t, find_task ts x = Some t.
Proof.
  intros V H x Hx. unfold add_ready_task in H. destruct (dispose_all qs (t_prio t')) as [qs1 r1] eqn:Ed.
  apply bind_ok in H. destruct H as (q1 & _ & H). inversion H; subst qs' r1; clear H.
  destruct (dispose_all_spec _ _ _ _ (qv_wf _ _ _ _ _ _ V) Ed) as (_ & _ & _ & Hr).
  destruct (Hr _ Hx) as (i & q & q1' & ri & Hq & Hc & Hin).
  pose proof (nth_error_Forall _ _ _ _ (qv_wf _ _ _ _ _ _ V) Hq) as Wq.
  destruct (q_cdp_spec _ _ _ _ Wq Hc) as [_ [[_ ->]|(pp & Ep & _ & _)]]; [destruct Hin|].
  destruct (qv_live _ _ _ _ _ _ V i q x Hq) as (t & Hf & _); [|eauto].
  exists pp. right. unfold PfAt. rewrite Ep. apply PAt_some. auto.
Qed.

Lemma add_new_tasks_QI ts : forall c ret c' ret',
  QI (exL Ready ret none) [] c -> (forall x, In x ret -> find_task (c_tasks c) x <> None) ->
  Forall (fun t => (N.to_nat (t_rq t) < length (c_rqs c))%nat) ts ->
  add_new_tasks c ts ret = Ok (c', ret') -> QI (exL Ready ret' none) [] c'.
Proof.
  induction ts as [|t r IH]; cbn [add_new_tasks]; intros c ret c' ret' V Hlive Hrq H; [inversion H; subst; exact V|].
  inversion Hrq as [|? ? Hrq1 Hrq2]; subst.
  destruct (register_deps c (t_id t) (t_deps t) [] 0) as [[c1 kept] count] eqn:Er.
  destruct (register_deps_QI _ _ _ _ _ _ _ _ _ _ V Er) as (V1 & N1 & R1).
  apply bind_ok in H. destruct H as ([c2 rt] & H2 & H).
  set (t1 := with_state (with_deps t kept) (Waiting count)) in *.
  assert (Hid1 : t_id t1 = t_id t) by reflexivity.
  destruct (N.eqb count 0) eqn:Ec.
  - apply bind_ok in H2. destruct H2 as ([qs rt0] & Ha & H2). inversion H2; subst c2 rt0; clear H2.
    cbn [c_tasks with_queues] in H. destruct (find_task (c_tasks c1) (t_id t)) eqn:Ef; [discriminate|].
    eapply IH; [| | |exact H].
    + qi_simpl.
      assert (Vn : QV (exU (exL Ready ret none) (t_id t) Nowhere) [] (set_task (c_tasks c1) t1) (c_queues c1) (c_redirects c1) (c_rqs c1)).
      { assert (Hlt : (N.to_nat (t_rq t1) < length (c_queues c1))%nat) by (rewrite (qv_len _ _ _ _ _ _ V1), R1; exact Hrq1).
        assert (Hnf : t_state t1 <> Finished) by (cbn; discriminate).
        exact (QV_new _ _ _ _ _ _ t1 V1 Ef Hlt Hnf). }
      assert (Hf1 : find_task (set_task (c_tasks c1) t1) (t_id t) = Some t1).
      { rewrite find_set_task. replace (tid_eqb (t_id t) (t_id t1)) with true by (symmetry; apply tid_eqb_eq; reflexivity). reflexivity. }
      assert (Va : QV (exU (exL Ready rt (exU (exL Ready ret none) (t_id t) Nowhere)) (t_id t) Ready) [] (set_task (c_tasks c1) t1) qs (c_redirects c1) (c_rqs c1)).
      { eapply QV_add_ready; [exact Vn | exact Hf1 | reflexivity | reflexivity | reflexivity | | | exact Ha].
        - unfold exp_place. rewrite exU_same. discriminate.
        - eapply QV_no_redirect; [exact Vn | exact Hf1 | cbn; intros w0; discriminate]. }
      eapply QV_ex_change; [exact Va | |].
      * intros y t0 Hf0. unfold exp_place, exU, exL, none. rewrite tid_mem_app. destruct (tid_eqb y (t_id t)) eqn:E.
        -- apply tid_eqb_eq in E. subst y. rewrite Hf1 in Hf0. inversion Hf0; subst t0.
           destruct (tid_mem (t_id t) ret || tid_mem (t_id t) rt); [reflexivity|]. cbn. rewrite Ec. reflexivity.
        -- destruct (tid_mem y ret), (tid_mem y rt); reflexivity.
      * intros y v Hv. destruct (qv_red _ _ _ _ _ _ Va _ _ Hv) as (E1 & _). unfold exU, exL, none in E1 |- *. rewrite tid_mem_app.
        destruct (tid_eqb y (t_id t)); [discriminate|]. destruct (tid_mem y rt); [discriminate|]. destruct (tid_mem y ret); [discriminate | reflexivity].
    + cbn [c_tasks upd_task with_tasks with_queues]. intros x Hx. rewrite find_set_task. destruct (tid_eqb x (t_id t1)); [discriminate|].
      apply in_app_or in Hx. destruct Hx as [Hx|Hx].
      * rewrite N1. apply Hlive. exact Hx.
      * qi_simpl. destruct (add_ready_ret_live _ _ _ _ _ _ _ _ _ V1 Ha _ Hx) as (tx & Htx). congruence.
    + cbn [c_rqs upd_task with_tasks with_queues]. rewrite R1. exact Hrq2.
  - inversion H2; subst c2 rt; clear H2.
    destruct (find_task (c_tasks c1) (t_id t)) eqn:Ef; [discriminate|].
    assert (Hnr : ~ In (t_id t) ret) by (intros Hx; apply (Hlive _ Hx); apply N1; exact Ef).
    eapply IH; [| | |exact H].
    + qi_simpl. rewrite app_nil_r.
      assert (Vn : QV (exU (exL Ready ret none) (t_id t) Nowhere) [] (set_task (c_tasks c1) t1) (c_queues c1) (c_redirects c1) (c_rqs c1)).
      { assert (Hlt : (N.to_nat (t_rq t1) < length (c_queues c1))%nat) by (rewrite (qv_len _ _ _ _ _ _ V1), R1; exact Hrq1).
        assert (Hnf : t_state t1 <> Finished) by (cbn; discriminate).
        exact (QV_new _ _ _ _ _ _ t1 V1 Ef Hlt Hnf). }
      eapply QV_ex_change; [exact Vn | |].
      * intros y t0 Hf0. unfold exp_place, exU. destruct (tid_eqb y (t_id t)) eqn:E; [|reflexivity].
        apply tid_eqb_eq in E. subst y. rewrite find_set_task in Hf0. replace (tid_eqb (t_id t) (t_id t1)) with true in Hf0 by (symmetry; apply tid_eqb_eq; reflexivity). inversion Hf0; subst t0.
        rewrite (exL_notin _ _ _ _ Hnr). unfold none. cbn. rewrite Ec. reflexivity.
      * intros y v Hv. destruct (qv_red _ _ _ _ _ _ Vn _ _ Hv) as (E1 & _). unfold exU in E1.
        destruct (tid_eqb y (t_id t)); [discriminate | exact E1].
    + cbn [c_tasks upd_task with_tasks]. intros x Hx. rewrite app_nil_r in Hx. rewrite find_set_task. destruct (tid_eqb x (t_id t1)); [discriminate|].
      rewrite N1. apply Hlive. exact Hx.
    + cbn [c_rqs upd_task with_tasks]. rewrite R1. exact Hrq2.
Qed.

Lemma on_new_tasks_QI s ts s' :
  QI none [] (core_of s) -> Forall (fun t => (N.to_nat (t_rq t) < length (c_rqs (core_of s)))%nat) ts ->
  on_new_tasks s ts = Ok s' -> QI none [] (core_of s').
Proof.
  intros V Hrq H. unfold on_new_tasks in H. destruct ts as [|t0 tr] eqn:Et; [inversion H; subst; exact V|]. rewrite <- Et in *. clear Et.
  apply bind_ok in H. destruct H as ([c' retracted] & Ha & H). apply bind_ok in H. destruct H as (s1 & Hr & H). inversion H; subst.
  assert (V1 : QI (exL Ready retracted none) [] c') by (eapply (add_new_tasks_QI ts (core_of s) []); [exact V | intros x [] | exact Hrq | exact Ha]).
  exact (process_retracted_QI [] (st_core s c') _ _ V1 Hr).
Qed.

Lemma rq_index_lt rqs r : forall k i, rq_index rqs r k = Some i -> (N.to_nat k <= N.to_nat i < N.to_nat k + length rqs)%nat.
Proof.
  induction rqs as [|h t IH]; cbn [rq_index]; intros k i H; [discriminate|].
  destruct (rq_eqb h r); [inversion H; subst; cbn; lia|]. specialize (IH _ _ H). cbn [length]. lia.
Qed.

Lemma get_or_create_rq_QI s r s' i : get_or_create_rq s r = (s', i) -> QI none [] (core_of s) ->
  QI none [] (core_of s') /\ (N.to_nat i < length (c_rqs (core_of s')))%nat /\ (length (c_rqs (core_of s)) <= length (c_rqs (core_of s')))%nat.
Proof.
  unfold get_or_create_rq. intros H V. destruct (rq_index (c_rqs (core_of s)) r 0) as [i0|] eqn:Ei.
  - inversion H; subst. split; [exact V | split; [|lia]]. pose proof (rq_index_lt _ _ _ _ Ei). cbn in *. lia.
  - inversion H; subst. cbn [core_of st_core with_core s_core fst broadcast with_procs c_rqs with_rqs]. rewrite app_length. cbn [length].
    split; [|split; [rewrite Nat2N.id; lia | lia]].
    unfold QI. cbn [c_tasks c_queues c_redirects c_rqs with_rqs]. apply QV_new_rq. exact V.
Qed.

Lemma submit_ok_resp_core s jid s' : submit_ok_resp s jid = Ok s' -> core_of s' = core_of s.
Proof. unfold submit_ok_resp. intros H. apply bind_ok in H. destruct H as (j & _ & H). inversion H; reflexivity. Qed.

Lemma submit_tail_QI s4 jid ids tasks s' :
  QI none [] (core_of s4) -> Forall (fun t => (N.to_nat (t_rq t) < length (c_rqs (core_of s4)))%nat) tasks ->
  submit_tail s4 jid ids tasks = Ok s' -> QI none [] (core_of s').
Proof.
  intros V Hrq H. unfold submit_tail in H. apply bind_ok in H. destruct H as (j & _ & H). apply bind_ok in H. destruct H as (j' & _ & H).
  apply bind_ok in H. destruct H as (s6 & H6 & H). rewrite (submit_ok_resp_core _ _ _ H).
  eapply on_new_tasks_QI; [| |exact H6]; [exact V | exact Hrq].
Qed.

Lemma handle_submit_array_QI s jobsel ids entries rq prio cl tlim mf s' :
  QI none [] (core_of s) -> handle_submit_array s jobsel ids entries rq prio cl tlim mf = Ok s' -> QI none [] (core_of s').
Proof.
  intros V H.
  destruct (handle_submit_array_spec _ _ _ _ _ _ _ _ _ _ H) as [(c & a & ->)|(jid & is_new & ids' & s4 & rqi & _ & _ & Erq & Ht)]; [exact V|].
  destruct (get_or_create_rq_QI _ _ _ _ Erq) as (V4 & Hi & _); [destruct is_new; exact V|].
  eapply submit_tail_QI; [exact V4 | | exact Ht].
  apply Forall_forall. intros t Hin. apply in_map_iff in Hin. destruct Hin as (i & <- & _). exact Hi.
Qed.

Lemma fold_rqs_QI rqs : forall s l s4 rqis,
  fold_left (fun acc r => let '(s, l) := acc in let '(s', i) := get_or_create_rq s r in (s', l ++ [i])) rqs (s, l) = (s4, rqis) ->
  QI none [] (core_of s) -> Forall (fun i => (N.to_nat i < length (c_rqs (core_of s)))%nat) l ->
  QI none [] (core_of s4) /\ Forall (fun i => (N.to_nat i < length (c_rqs (core_of s4)))%nat) rqis.
Proof.
  induction rqs as [|r rest IH]; cbn [fold_left]; intros s l s4 rqis H V Hl; [inversion H; subst; auto|].
  destruct (get_or_create_rq s r) as [s1 i] eqn:E. destruct (get_or_create_rq_QI _ _ _ _ E V) as (V1 & Hi & Hle).
  eapply IH; [exact H | exact V1|]. apply Forall_app. split; [|constructor; [exact Hi | constructor]].
  eapply Forall_impl; [|exact Hl]. cbn. intros a Ha. lia.
Qed.

Lemma graph_tasks_rq jid rqis l : forall tasks, graph_tasks jid rqis l = Ok tasks -> Forall (fun t => In (t_rq t) rqis) tasks.
Proof.
  induction l as [|g r IH]; cbn [graph_tasks]; intros tasks H; [inversion H; constructor|].
  destruct (nth_error rqis (N.to_nat (gt_rq g))) as [rqi|] eqn:En; [|discriminate].
  apply bind_ok in H. destruct H as (rest & Hr & H). inversion H; subst. constructor; [|apply IH; exact Hr].
  cbn. eapply nth_error_In. exact En.
Qed.

Lemma handle_submit_graph_QI s jobsel rqs ts mf s' :
  QI none [] (core_of s) -> handle_submit_graph s jobsel rqs ts mf = Ok s' -> QI none [] (core_of s').
Proof.
  intros V H.
  destruct (handle_submit_graph_spec _ _ _ _ _ _ H) as [(r & ->)|(jid & is_new & s4 & rqis & tasks & _ & Erq & Hg & Ht)]; [exact V|].
  destruct (fold_rqs_QI _ _ _ _ _ Erq) as (V4 & Hi); [destruct is_new; exact V | constructor|].
  eapply submit_tail_QI; [exact V4 | | exact Ht].
  pose proof (graph_tasks_rq _ _ _ _ Hg) as Hin. rewrite Forall_forall in *. intros t Hx. apply Hi, Hin, Hx.
Qed.

Lemma handle_open_QI s mf s' : QI none [] (core_of s) -> handle_open s mf = Ok s' -> QI none [] (core_of s').
Proof. unfold handle_open. intros V H. inversion H; subst. exact V. Qed.

Lemma handle_close_QI s jid s' : QI none [] (core_of s) -> handle_close s jid = Ok s' -> QI none [] (core_of s').
Proof.
  intros V H. unfold handle_close in H.
  destruct (find_job (hq_jobs s) jid) as [j|]; [|inversion H; subst; exact V].
  destruct (j_open j); [|inversion H; subst; exact V].
  apply bind_ok in H. destruct H as (s1 & H1 & H). inversion H; subst.
  destruct (check_termination_jt _ _ _ H1) as [C1 _]. unfold core_same in C1. change (QI none [] (core_of s1)). rewrite C1. exact V.
Qed.

Lemma handle_forget_QI s jid s' : QI none [] (core_of s) -> handle_forget s jid = Ok s' -> QI none [] (core_of s').
Proof.
  intros V H. unfold handle_forget in H.
  destruct (find_job (hq_jobs s) jid) as [j|]; [|inversion H; subst; exact V].
  apply bind_ok in H. destruct H as (na & _ & H). destruct (negb (j_open j) && na); inversion H; subst; exact V.
Qed.

Lemma handle_cancel_QI s jid s' : HOK (hq_of s) -> CB s -> QI none [] (core_of s) -> handle_cancel s jid = Ok s' -> QI none [] (core_of s').
Proof.
  intros Hok HC V H. unfold handle_cancel in H.
  destruct (find_job (hq_jobs s) jid) as [j|] eqn:Ej; [|inversion H; subst; exact V].
  assert (Hjt : jt s jid = Some (j_tasks j)) by (unfold jt, hq_of; unfold hq_jobs in Ej; rewrite Ej; reflexivity).
  pose proof (find_job_id _ _ _ Ej) as Hid.
  assert (Hin : forall x, In x (non_finished_task_ids j) <-> fst x = jid /\ active s x).
  { intros x. rewrite (non_finished_in _ _ (jok_sorted _ (Hok _ (find_job_in _ _ _ Ej)))), Hid. split.
    - intros [Hf Ha]. split; [exact Hf|]. exists (j_tasks j). rewrite Hf. auto.
    - intros [Hf (l & Hl & Ha)]. split; [exact Hf|]. rewrite Hf, Hjt in Hl. inversion Hl; subst. exact Ha. }
  destruct (non_finished_task_ids j) as [|i0 ir] eqn:En; [inversion H; subst; exact V|].
  rewrite <- En in *. clear En.
  apply bind_ok in H. destruct H as (s1 & H1 & H). apply bind_ok in H. destruct H as (al & _ & H).
  apply bind_ok in H. destruct H as (s2 & H2 & H). inversion H; subst.
  destruct (set_cancel_state_active _ _ _ _ H2) as [C2 _]. unfold core_same in C2. change (QI none [] (core_of s2)). rewrite C2.
  eapply on_cancel_tasks_QI; [exact V | exact (cb_d _ HC) | | exact H1].
  intros x t y Hx Hy Hf. left. apply Hin. split.
  - rewrite Hf. apply Hin in Hy. apply Hy.
  - apply (cb_b _ HC). apply find_task_present. eauto.
Qed.

(** The inductive invariant between operations: no exceptions, no Finished task. *)
Definition QInv (c : core) : Prop := QI none [] c.

Lemma QInv_init reserve maxfill : QInv (s_core (init_sys reserve maxfill)).
Proof.
  unfold QInv, QI. cbn. constructor; cbn; try (intros; discriminate); try constructor.
  - intros i q x Hq. destruct i; discriminate.
Qed.

Theorem step_QI s o s' outs :
  HOK (s_hq s) -> CB (s, []) -> asg_ok (s_core s) -> QInv (s_core s) -> step s o = Ok (s', outs) -> QInv (s_core s').
Proof.
  intros Hok HC Hasg V H.
  set (R := fun a b : st => HOK (hq_of a) -> CB a -> asg_ok (core_of a) -> QI none [] (core_of a) -> QI none [] (core_of b)).
  enough (X : R (s, []) (s', outs)) by exact (X Hok HC Hasg V).
  apply (step_walk R (fun _ => True)) with (o := o); [.. | exact I | exact H]; unfold R; clear.
  - intros. eapply on_new_worker_QI; eassumption.
  - intros. eapply on_remove_worker_QI; eassumption.
  - intros s o c a _ _ _ _ V. exact V.
  - intros. eapply handle_submit_array_QI; eassumption.
  - intros. eapply handle_submit_graph_QI; eassumption.
  - intros. eapply handle_open_QI; eassumption.
  - intros. eapply handle_close_QI; eassumption.
  - intros. eapply handle_cancel_QI; eassumption.
  - intros. eapply handle_forget_QI; eassumption.
  - intros s w p m rest s' _ _ _ Hx Hok HC _ V. destruct m; [|eapply on_retract_response_QI; [|exact Hx]; exact V].
    eapply on_task_update_QI; [| | |exact Hx]; [exact Hok | eapply CB_same; [| |exact HC]; reflexivity | exact V].
  - intros. eapply run_scheduling_QI; eassumption.
  - intros s lj _ _ _ _ _ V. exact V.
  - intros s w order p m rest p' ls _ _ _ _ _ _ _ V. exact V.
  - intros s w t how p p' ls _ _ _ _ _ _ V. exact V.
  - intros s w t p _ _ _ _ _ V. exact V.
  - intros s _ _ _ _ V. exact V.
Qed.


(** [P] holds in every state the history goes through. *)
Fixpoint along (P : sys -> Prop) (s : sys) (ops : list op) : Prop :=
  P s /\ match ops with
         | [] => True
         | o :: r => match step s o with Ok (s1, _) => along P s1 r | _ => True end
         end.

Lemma along_impl (P Q : sys -> Prop) : (forall s, P s -> Q s) -> forall ops s, along P s ops -> along Q s ops.
Proof.
  intros HPQ. induction ops as [|o r IH]; cbn [along]; intros s [H1 H2]; (split; [apply HPQ; exact H1|]); [exact I|].
  destruct (step s o) as [[s1 o1]| |]; [apply IH; exact H2 | exact I | exact I].
Qed.

Theorem run_QI ops : forall s s' outs,
  HOK (s_hq s) -> fresh (s, []) -> Forall op_wf ops -> CB (s, []) -> QInv (s_core s) ->
  along (fun s => asg_ok (s_core s)) s ops ->
  run s ops = Ok (s', outs) -> QInv (s_core s').
Proof.
  induction ops as [|o r IH]; cbn [run]; intros s s' outs Hok F Hwf HC V Hal H; [inversion H; subst; exact V|].
  inversion Hwf as [|? ? Hw1 Hw2]; subst.
  apply bind_ok in H. destruct H as ([s1 o1] & H1 & H). apply bind_ok in H. destruct H as ([s2 o2] & H2 & H). inversion H; subst.
  destruct Hal as [Ha1 Ha2]. cbn [along] in Ha2. rewrite H1 in Ha2.
  pose proof (step_CB _ _ _ _ Hok F Hw1 HC H1) as HC1.
  pose proof (step_hq_ok _ _ _ _ Hok H1) as Hok1.
  pose proof (G_step _ _ _ _ F H1) as G1.
  assert (F1 : fresh (s1, [])) by (apply (fresh_outs s1 o1); apply (g_fresh _ _ G1); exact F).
  pose proof (step_QI _ _ _ _ Hok HC Ha1 V H1) as V1.
  eapply IH; [exact Hok1 | exact F1 | exact Hw2 | eapply CB_outs; exact HC1 | exact V1 | exact Ha2 | exact H2].
Qed.

Lemma find_redirect_in rs k v : In (k, v) rs -> exists v', find_redirect rs k = Some v'.
Proof.
  induction rs as [|[k0 v0] r IH]; cbn [find_redirect In]; [intros []|].
  intros [E|Hin]; [inversion E; subst; rewrite (proj2 (tid_eqb_eq _ _) eq_refl); eauto|].
  destruct (tid_eqb k k0); [eauto | apply IH; exact Hin].
Qed.

Lemma placed_bools q pl pr x : placed q pl pr x ->
  in_ready q x = (match pl with Ready => true | _ => false end) /\
  in_prefill q x = (match pl with Prefill => true | _ => false end).
Proof.
  intros H. destruct pl; cbn in H; destruct H as [A B]; split.
  - destruct (in_ready q x) eqn:E; [|reflexivity]. apply in_ready_iff in E. destruct E as (p & E). exfalso. exact (A _ E).
  - destruct (in_prefill q x) eqn:E; [|reflexivity]. apply in_prefill_iff in E. destruct E as (p & E). exfalso. exact (B _ E).
  - apply in_ready_iff. exists pr. apply A. reflexivity.
  - destruct (in_prefill q x) eqn:E; [|reflexivity]. apply in_prefill_iff in E. destruct E as (p & E). exfalso. exact (B _ E).
  - destruct (in_ready q x) eqn:E; [|reflexivity]. apply in_ready_iff in E. destruct E as (p & E). exfalso. exact (B _ E).
  - apply in_prefill_iff. exists pr. apply A. reflexivity.
Qed.

Definition queue_statement (c : core) : Prop :=
  queues_live_ok c = true /\
  (forall t, In t (c_tasks c) ->
     let q := queue_of c (t_rq t) in
     match t_state t with
     | Waiting n => in_ready q (t_id t) = N.eqb n 0 /\ in_prefill q (t_id t) = false
     | Prefilled _ => in_prefill q (t_id t) = true /\ in_ready q (t_id t) = false
     | Retracting _ => in_prefill q (t_id t) = false /\
                       (in_ready q (t_id t) = match find_redirect (c_redirects c) (t_id t) with Some _ => false | None => true end)
     | Assigned _ _ | Running _ _ | RunningMN _ => in_ready q (t_id t) = false /\ in_prefill q (t_id t) = false
     | Finished => False
     end) /\
  (forall rq q id, nth_error (c_queues c) rq = Some q -> (in_ready q id = true \/ in_prefill q id = true) ->
     exists t, find_task (c_tasks c) id = Some t /\ N.to_nat (t_rq t) = rq) /\
  (* structure *)
  length (c_queues c) = length (c_rqs c) /\ Forall WFQ (c_queues c) /\
  (forall t, In t (c_tasks c) -> (N.to_nat (t_rq t) < length (c_queues c))%nat) /\
  (forall t q p, In t (c_tasks c) -> nth_error (c_queues c) (N.to_nat (t_rq t)) = Some q ->
     (RdyAt q p (t_id t) \/ PfAt q p (t_id t)) -> p = t_prio t).

Lemma QInv_statement c : QInv c -> queue_statement c.
Proof.
  unfold QInv, QI. intros V. unfold queue_statement.
  assert (Hmem : forall i q x, nth_error (c_queues c) i = Some q -> (in_ready q x = true \/ in_prefill q x = true) -> member q x).
  { intros i q x Hq [H|H]; [apply in_ready_iff in H | apply in_prefill_iff in H]; destruct H as (p & H); exists p; auto. }
  split; [|split; [|split; [|split; [exact (qv_len _ _ _ _ _ _ V) | split; [exact (qv_wf _ _ _ _ _ _ V) | split]]]]].
  - unfold queues_live_ok. apply andb_true_iff. split.
    + apply forallb_forall. intros q Hq. apply In_nth_error in Hq. destruct Hq as (i & Hq). apply andb_true_iff. split.
      * apply forallb_forall. intros e He. apply forallb_forall. intros x Hx.
        destruct (qv_live _ _ _ _ _ _ V i q x Hq) as (t & Hf & _); [|rewrite Hf; reflexivity].
        exists (qe_prio e). left. exists e. auto.
      * destruct (q_prefill q) as [[pp ts]|] eqn:Ep; [|reflexivity]. apply forallb_forall. intros x Hx.
        destruct (qv_live _ _ _ _ _ _ V i q x Hq) as (t & Hf & _); [|rewrite Hf; reflexivity].
        exists pp. right. unfold PfAt. rewrite Ep. apply PAt_some. auto.
    + apply forallb_forall. intros [k v] Hr. cbn [fst]. destruct (find_redirect_in _ _ _ Hr) as (v' & Hv).
      destruct (qv_red _ _ _ _ _ _ V _ _ Hv) as (_ & t & w & Hf & Hw). rewrite Hf, Hw. reflexivity.
  - intros t Hin. pose proof (in_find_task _ _ (qv_ts _ _ _ _ _ _ V) Hin) as Hf.
    destruct (QV_queue _ _ _ _ _ _ _ _ V Hf) as (q & Hq & _ & Hp). unfold queue_of. rewrite Hq. cbv zeta.
    unfold exp_place, none in Hp. apply placed_bools in Hp. destruct Hp as [P1 P2].
    destruct (t_state t) as [n| | | | | |] eqn:Est; cbn [nat_place] in P1, P2.
    + rewrite P1, P2. destruct (N.eqb n 0); split; reflexivity.
    + rewrite P1, P2. split; reflexivity.
    + rewrite P1, P2. split; reflexivity.
    + rewrite P1, P2. destruct (find_redirect (c_redirects c) (t_id t)); split; reflexivity.
    + rewrite P1, P2. split; reflexivity.
    + rewrite P1, P2. split; reflexivity.
    + exact (qv_fin _ _ _ _ _ _ V _ _ Hf Est).
  - intros rq q id Hq Hor. eapply qv_live; [exact V | exact Hq | eapply Hmem; eassumption].
  - intros t Hin. eapply qv_rq; [exact V | apply in_find_task; [exact (qv_ts _ _ _ _ _ _ V) | exact Hin]].
  - intros t q p Hin Hq Hor. pose proof (in_find_task _ _ (qv_ts _ _ _ _ _ _ V) Hin) as Hf.
    pose proof (qv_task _ _ _ _ _ _ V _ _ _ Hf Hq) as Hp.
    destruct (exp_place none (c_redirects c) (t_id t) (t_state t)); cbn in Hp; destruct Hp as [A B]; destruct Hor as [M|M];
      try (exfalso; exact (A _ M)); try (exfalso; exact (B _ M)); apply A; exact M.
Qed.

Lemma worker_sets_asg_ok c : forallb (worker_sets_ok c) (c_workers c) = true -> asg_ok c.
Proof.
  intros H wk a p f id t Hin Ha Hm Hf w Hst. rewrite forallb_forall in H. specialize (H _ Hin).
  unfold worker_sets_ok in H. rewrite Ha in H. apply andb_true_iff in H. destruct H as [H _].
  rewrite forallb_forall in H. apply tid_mem_In in Hm. specialize (H _ Hm). rewrite Hf, Hst in H. discriminate.
Qed.

(** For EVERY history of the system model, under the hypothesis that along the history no id in a
    worker's assigned set is a Prefilled task ([asg_ok], a consequence of the worker-set invariant
    [worker_sets_ok]): the invariant and its statement with the monitor predicates, structural part
    included. *)
Theorem queue_invariant_full ops reserve maxfill s outs :
  Forall op_wf ops -> run (init_sys reserve maxfill) ops = Ok (s, outs) ->
  along (fun s => asg_ok (s_core s)) (init_sys reserve maxfill) ops ->
  QInv (s_core s) /\ queue_statement (s_core s).
Proof.
  intros Hwf H Hal.
  assert (HC0 : CB (init_sys reserve maxfill, [])).
  { constructor; [constructor | intros id cs x [] | ]. intros x. split; [intros [] | intros (l & Hl & _); discriminate]. }
  assert (Hok0 : HOK (s_hq (init_sys reserve maxfill))) by (intros j []).
  assert (F0 : fresh (init_sys reserve maxfill, [])) by (intros j []).
  pose proof (run_QI _ _ _ _ Hok0 F0 Hwf HC0 (QInv_init reserve maxfill) Hal H) as V.
  split; [exact V | apply QInv_statement; exact V].
Qed.

(** C02 "no limbo" / base of C03: the part of [queue_statement] that only mentions the monitor
    predicates. *)
Theorem queue_invariant ops reserve maxfill s outs :
  Forall op_wf ops -> run (init_sys reserve maxfill) ops = Ok (s, outs) ->
  along (fun s => asg_ok (s_core s)) (init_sys reserve maxfill) ops ->
  let c := s_core s in
  queues_live_ok c = true /\
  (forall t, In t (c_tasks c) ->
     let q := queue_of c (t_rq t) in
     match t_state t with
     | Waiting n => in_ready q (t_id t) = N.eqb n 0 /\ in_prefill q (t_id t) = false
     | Prefilled _ => in_prefill q (t_id t) = true /\ in_ready q (t_id t) = false
     | Retracting _ => in_prefill q (t_id t) = false /\
                       (in_ready q (t_id t) = match find_redirect (c_redirects c) (t_id t) with Some _ => false | None => true end)
     | Assigned _ _ | Running _ _ | RunningMN _ => in_ready q (t_id t) = false /\ in_prefill q (t_id t) = false
     | Finished => False
     end) /\
  (forall rq q id, nth_error (c_queues c) rq = Some q -> (in_ready q id = true \/ in_prefill q id = true) ->
     exists t, find_task (c_tasks c) id = Some t /\ N.to_nat (t_rq t) = rq).
Proof.
  intros Hwf H Hal. destruct (queue_invariant_full _ _ _ _ _ Hwf H Hal) as [_ (A & B & C & _)]. cbv zeta. auto.
Qed.

(** The same with the worker-set monitor as the hypothesis along the history. *)
Corollary queue_invariant_ws ops reserve maxfill s outs :
  Forall op_wf ops -> run (init_sys reserve maxfill) ops = Ok (s, outs) ->
  along (fun s => forallb (worker_sets_ok (s_core s)) (c_workers (s_core s)) = true) (init_sys reserve maxfill) ops ->
  queue_statement (s_core s).
Proof.
  intros Hwf H Hal. eapply queue_invariant_full; [exact Hwf | exact H|].
  eapply along_impl; [|exact Hal]. intros s0 Hs0. apply worker_sets_asg_ok. exact Hs0.
Qed.
