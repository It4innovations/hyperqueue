(** C03, the dependency invariant, part 7: every operation of the system model keeps it, and it
    holds in every reachable state.

    Premises that other invariants deliver (about the state BEFORE the operation):
      [QSTMT] the queue invariant (which ids are in the ready queues / prefill sets),
      [WSTMT] the worker-set invariant (a task in a worker's assigned set is placed: needed
              because [lost_assigned] re-queues such a task as [Waiting 0] without looking).
    The job layer enters once: a new task id must not be a dependency of a task already in the
    core.  This is the side invariant [DJ] (dependencies are ids known to the job layer, in the
    task's own job), proved here from the bijection [CB] of BijFinal.v. *)
From HQ Require Import Base.Prelude Cluster.Types Cluster.Core Cluster.Reactor Cluster.Worker Cluster.Server Cluster.Sys Cluster.Monitors Cluster.ProofsJob Cluster.ProofsMore Cluster.ProofsTerminal Cluster.ProofsStep Cluster.ProofsFinal Cluster.BijBase Cluster.BijCore Cluster.BijHq Cluster.BijSt Cluster.BijReact Cluster.BijFinal Cluster.FrameGen Cluster.CrashFrame Cluster.RejHyp Cluster.InvQBase Cluster.InvDBase Cluster.InvDSpec Cluster.InvDRem Cluster.InvDReact Cluster.InvDSched Cluster.InvDHq.
From HQ Require Import Cluster.StepShape.
From HQ Require Import Cluster.ModelFacts.
From Coq Require Import ZArith Lia Sorting.Sorted.
Local Open Scope N_scope.

Arguments N.add : simpl never.
Arguments N.sub : simpl never.

(** The inductive invariant, on the core ... *)
Definition DIc (c : core) : Prop := DI (fm c).
(** ... and its job-layer companion. *)
Definition DJ (s : st) : Prop :=
  forall id t d, fm (core_of s) id = Some t -> In d (t_deps t) -> fst d = fst id /\ known s d.

Definition PRE (s : st) : Prop := GD (core_of s) /\ DJ s.

Lemma DJ_step s s' : DJ s -> dsub (fm (core_of s)) (fm (core_of s')) -> KL s s' -> DJ s'.
Proof.
  intros D S K id t' d Ef Hd. destruct (S _ _ Ef) as (t & Et & Ed). rewrite Ed in Hd.
  destruct (D _ _ _ Et Hd) as [A B]. split; [exact A | eapply KL_known; eassumption].
Qed.

Lemma PRE_RL s s' : PRE s -> RL (core_of s) (core_of s') -> KL s s' -> PRE s'.
Proof. intros [G D] [G' S] K. split; [exact G' | eapply DJ_step; eassumption]. Qed.

Lemma PRE_frame s s' : c_tasks (core_of s') = c_tasks (core_of s) -> KL s s' -> PRE s -> PRE s'.
Proof.
  intros E K P. eapply PRE_RL; [exact P | | exact K]. apply RL_scr; [apply P | apply scr_tasks; exact E].
Qed.

Lemma PRE_same s s' : c_tasks (core_of s') = c_tasks (core_of s) -> hq_of s' = hq_of s -> PRE s -> PRE s'.
Proof. intros E Q. apply PRE_frame; [exact E | apply KL_same; exact Q]. Qed.

Lemma active_known s x : active s x -> known s x.
Proof. intros (l & Hl & [Ha|Ha]); exists l; (split; [exact Hl | rewrite Ha; discriminate]). Qed.

Lemma attach_ids_fresh ids : forall j j', attach_ids j ids = Ok j' -> forall i, In i ids -> jt_find (j_tasks j) i = None.
Proof.
  induction ids as [|i0 r IH]; cbn [attach_ids]; intros j j' H i Hin; [destruct Hin|].
  destruct (jt_find (j_tasks j) i0) eqn:Ef; [discriminate|]. destruct Hin as [<-|Hin]; [exact Ef|].
  pose proof (IH _ _ H i Hin) as Hn. cbn [job_set_task job_upd j_tasks] in Hn. rewrite jt_find_set in Hn.
  destruct (N.eqb i i0); [discriminate | exact Hn].
Qed.

Lemma submit_tail_D s4 jid ids tasks s' :
  PRE s4 -> CB s' ->
  map t_id tasks = map (fun i => (jid, i)) ids -> Forall new_ok tasks -> Forall new_wf tasks ->
  submit_tail s4 jid ids tasks = Ok s' ->
  PRE s'.
Proof.
  intros [G4 D4] HC' Hids Hok Hwf H. unfold submit_tail in H.
  apply bind_ok in H. destruct H as (j & Hj & H). apply bind_ok in H. destruct H as (j' & Ha & H).
  apply bind_ok in H. destruct H as (s6 & H6 & H).
  destruct (jt_get _ _ _ _ Hj) as [Ej Eid]. destruct (attach_ids_ldom _ _ _ Ha) as [I1 L1].
  pose proof (attach_ids_fresh _ _ _ Ha) as Hfr.
  set (s5 := hq_set_job s4 j') in *.
  assert (Hnd : forall t x tx, In t tasks -> fm (core_of s5) x = Some tx -> ~ In (t_id t) (t_deps tx)).
  { intros t x tx Hin Ex Hdep. change (fm (core_of s4) x = Some tx) in Ex.
    destruct (D4 _ _ _ Ex Hdep) as [_ (l & Hl & Hk)].
    assert (Hi : In (t_id t) (map (fun i => (jid, i)) ids)) by (rewrite <- Hids; apply in_map; exact Hin).
    apply in_map_iff in Hi. destruct Hi as (i & Ei & Hi). rewrite <- Ei in Hl, Hk. cbn [fst snd] in Hl, Hk.
    rewrite Ej in Hl. inversion Hl; subst l. apply Hk. apply Hfr. exact Hi. }
  destruct (on_new_tasks_DI s5 tasks s6 G4 Hwf Hnd H6) as [G6 Gr6].
  assert (Hs' : c_tasks (core_of s') = c_tasks (core_of s6) /\ hq_of s' = hq_of s6).
  { unfold submit_ok_resp in H. apply bind_ok in H. destruct H as (jx & _ & H). inversion H; subst. split; reflexivity. }
  destruct Hs' as [Ts' Qs'].
  assert (K : KL s4 s').
  { eapply KL_trans; [eapply (KL_set s4 s5 j' (j_tasks j)); [rewrite I1, Eid; exact Ej | exact L1 | intros id; reflexivity]|].
    apply KL_same. rewrite Qs'. eapply on_new_tasks_hq; exact H6. }
  assert (Efm : fm (core_of s') = fm (core_of s6)) by (unfold fm; rewrite Ts'; reflexivity).
  split; [eapply GD_tasks; [exact Ts' | exact G6]|].
  intros x tx' d Ex Hd. rewrite Efm in Ex.
  destruct (Gr6 _ _ Ex) as [(tx & Etx & Ed)|(t & Hin & -> & Hincl & Hdom)].
  - rewrite Ed in Hd. destruct (D4 _ _ _ Etx Hd) as [A B]. split; [exact A | eapply KL_known; eassumption].
  - rewrite Forall_forall in Hok. destruct (Hok _ Hin) as [_ Hjob]. split; [apply Hjob; apply Hincl; exact Hd|].
    apply active_known. apply (cb_b _ HC'). apply find_task_present.
    specialize (Hdom d Hd). rewrite <- Efm in Hdom. unfold fm in Hdom. destruct (find_task (c_tasks (core_of s')) d); [eauto | congruence].
Qed.

Lemma PRE_new_job s ev mf :
  fresh s -> PRE s ->
  PRE (hq_with (emit (hq_with s (hq_jobs s) (hq_counter s + 1)) ev)
         (set_job (hq_jobs (emit (hq_with s (hq_jobs s) (hq_counter s + 1)) ev)) (mkJob (hq_counter s) false [] 0 0 0 0 0 false mf))
         (hq_counter (emit (hq_with s (hq_jobs s) (hq_counter s + 1)) ev))).
Proof.
  intros F P. eapply (PRE_frame s); [reflexivity | | exact P].
  eapply KL_trans; [apply (KL_jt s (emit (hq_with s (hq_jobs s) (hq_counter s + 1)) ev))|].
  - (* only the counter changed: every [jt] is the same *) intros id. reflexivity.
  - apply KL_new_job. change (jt s (cnt_of s) = None). apply fresh_absent. exact F.
Qed.

Lemma submit_job_PRE s jid is_new n mf : fresh s -> PRE s -> submit_target s jid is_new -> PRE (submit_job s jid is_new n mf).
Proof.
  intros F P Ht. destruct is_new; [|exact (PRE_same _ _ eq_refl eq_refl P)].
  cbn in Ht. subst jid. unfold submit_job. apply PRE_new_job; assumption.
Qed.

Lemma handle_submit_array_D s jobsel ids entries rq prio cl tlim mf s' :
  fresh s -> PRE s -> CB s' -> (match entries with Some n => (length ids <= N.to_nat n)%nat | None => True end) ->
  handle_submit_array s jobsel ids entries rq prio cl tlim mf = Ok s' -> PRE s'.
Proof.
  intros F P HC' Hwf H.
  destruct (handle_submit_array_spec _ _ _ _ _ _ _ _ _ _ H) as [(c & a & ->)|(jid & is_new & ids' & s4 & rqi & Htg & Hids & Erq & Ht)];
    [exact (PRE_same _ _ eq_refl eq_refl P)|].
  pose proof (submit_job_PRE _ _ _ (N.of_nat (length ids')) mf F P Htg) as P3.
  pose proof (get_or_create_rq_tasks (submit_job s jid is_new (N.of_nat (length ids')) mf) rq) as T4.
  pose proof (get_or_create_rq_same (submit_job s jid is_new (N.of_nat (length ids')) mf) rq) as Q4. rewrite Erq in T4, Q4. cbn [fst] in T4, Q4.
  eapply (submit_tail_D s4 jid ids'); [exact (PRE_same _ _ T4 Q4 P3) | exact HC' | | | | exact Ht].
  - rewrite map_map. cbn. destruct entries as [n|]; [|reflexivity]. rewrite take_n_all; [reflexivity|].
    destruct Hids as [->|[-> Hl]]; [exact Hwf | lia].
  - apply Forall_forall. intros t Hx. apply in_map_iff in Hx. destruct Hx as (i & <- & _). split; [reflexivity | intros d []].
  - apply Forall_forall. intros t Hx. apply in_map_iff in Hx. destruct Hx as (i & <- & _). split; [constructor | reflexivity].
Qed.

Lemma dedup_sorted_sorted l : forall acc j, StronglySorted tlt acc -> StronglySorted tlt (dedup_sorted l acc j).
Proof. induction l as [|h t IH]; cbn [dedup_sorted]; intros acc j Hs; [exact Hs | apply IH, tins_SL, Hs]. Qed.

Lemma graph_tasks_wf jid rqis l : forall tasks, graph_tasks jid rqis l = Ok tasks -> Forall new_wf tasks.
Proof.
  induction l as [|g r IH]; cbn [graph_tasks]; intros tasks H; [inversion H; subst; constructor|].
  destruct (nth_error rqis (N.to_nat (gt_rq g))) as [rqi|]; [|discriminate].
  apply bind_ok in H. destruct H as (rest & Hr & H). inversion H; subst. constructor; [|apply IH; exact Hr].
  split; [|reflexivity]. cbn. apply SL_NoDup. apply dedup_sorted_sorted. apply SL_nil.
Qed.

Lemma handle_submit_graph_D s jobsel rqs ts mf s' :
  fresh s -> PRE s -> CB s' -> handle_submit_graph s jobsel rqs ts mf = Ok s' -> PRE s'.
Proof.
  intros F P HC' H.
  destruct (handle_submit_graph_spec _ _ _ _ _ _ H) as [(r & ->)|(jid & is_new & s4 & rqis & tasks & Htg & Erq & Hg & Ht)];
    [exact (PRE_same _ _ eq_refl eq_refl P)|].
  pose proof (submit_job_PRE _ _ _ (N.of_nat (length ts)) mf F P Htg) as P3.
  pose proof (PRE_same _ _ (fold_rqs_tasks _ _ _ _ _ Erq) (fold_rqs_same _ _ _ _ _ Erq) P3) as P4.
  destruct (graph_tasks_spec _ _ _ _ Hg) as [G1 G2].
  exact (submit_tail_D s4 jid (map gt_id ts) tasks s' P4 HC' G1 G2 (graph_tasks_wf _ _ _ _ Hg) Ht).
Qed.

Lemma handle_open_D s mf s' : fresh s -> PRE s -> handle_open s mf = Ok s' -> PRE s'.
Proof.
  intros F P H. unfold handle_open in H. inversion H; subst.
  eapply (PRE_frame s); [reflexivity | | exact P].
  eapply KL_trans; [apply (KL_new_job s (hq_counter s) true mf (hq_counter s + 1)); change (jt s (cnt_of s) = None); apply fresh_absent; exact F | apply KL_same; reflexivity].
Qed.

Lemma handle_close_D s jid s' : PRE s -> handle_close s jid = Ok s' -> PRE s'.
Proof.
  intros P H. eapply PRE_frame; [| eapply handle_close_KL; exact H | exact P].
  unfold handle_close in H.
  destruct (find_job (hq_jobs s) jid) as [j|]; [|inversion H; subst; reflexivity].
  destruct (j_open j); [|inversion H; subst; reflexivity].
  apply bind_ok in H. destruct H as (s1 & H1 & H). inversion H; subst.
  destruct (check_termination_jt _ _ _ H1) as [C1 _]. unfold core_same in C1.
  change (c_tasks (core_of s1) = c_tasks (core_of s)). rewrite C1. reflexivity.
Qed.

Lemma handle_cancel_D s jid s' : PRE s -> handle_cancel s jid = Ok s' -> PRE s'.
Proof.
  intros P H. eapply PRE_RL; [exact P | | eapply handle_cancel_KL; exact H].
  unfold handle_cancel in H.
  destruct (find_job (hq_jobs s) jid) as [j|]; [|inversion H; subst; apply RL_refl; apply P].
  destruct (non_finished_task_ids j) as [|i0 ir]; [inversion H; subst; apply RL_refl; apply P|].
  apply bind_ok in H. destruct H as (s1 & H1 & H). apply bind_ok in H. destruct H as (al & _ & H).
  apply bind_ok in H. destruct H as (s2 & H2 & H). inversion H; subst.
  destruct (set_cancel_state_active _ _ _ _ H2) as [C2 _]. unfold core_same in C2.
  change (RL (core_of s) (core_of s2)). rewrite C2.
  eapply on_cancel_tasks_RL; [apply P | exact H1].
Qed.

Lemma handle_forget_D s jid s' : PRE s -> CB s' -> handle_forget s jid = Ok s' -> PRE s'.
Proof.
  intros [G D] HC' H. unfold handle_forget in H.
  destruct (find_job (hq_jobs s) jid) as [j|] eqn:Ej; [|inversion H; subst; split; [exact G | exact D]].
  apply bind_ok in H. destruct H as (na & _ & H).
  destruct (negb (j_open j) && na); [|inversion H; subst; split; [exact G | exact D]].
  inversion H; subst. split; [exact G|].
  match goal with |- DJ ?sx => set (s' := sx) in * end.
  assert (E : forall id, jt s' id = if N.eqb id jid then None else jt s id).
  { intros id. unfold jt, hq_of, s', hq_with, hq_jobs. cbn. destruct (N.eqb id jid) eqn:E.
    - apply N.eqb_eq in E. subst id. rewrite find_job_del_same. reflexivity.
    - apply N.eqb_neq in E. rewrite find_job_del by exact E. reflexivity. }
  intros x t d Ex Hd. change (fm (core_of s) x = Some t) in Ex.
  destruct (D _ _ _ Ex Hd) as [A (l & Hl & Hk)]. split; [exact A|].
  assert (Hact : active s' x).
  { apply (cb_b _ HC'). apply find_task_present. exists t. exact Ex. }
  destruct Hact as (lx & Hlx & _). rewrite E in Hlx. rewrite <- A in Hlx.
  exists l. split; [|exact Hk]. rewrite E. destruct (N.eqb (fst d) jid); [discriminate | exact Hl].
Qed.

Lemma TS_of_CS c : CS c -> TS c.
Proof. apply TS_CS. Qed.

Theorem deps_invariant_step_pre s o s' outs :
  QSTMT (s_core s) -> WSTMT (s_core s) ->
  HOK (s_hq s) -> fresh (s, []) -> op_wf o -> CB (s, []) -> PRE (s, []) ->
  step s o = Ok (s', outs) -> PRE (s', outs).
Proof.
  intros HQ HW Hok F Hwf HC P H.
  pose proof (step_CB _ _ _ _ Hok F Hwf HC H) as HC'.
  set (R := fun a b : st => QSTMT (core_of a) -> WSTMT (core_of a) -> fresh a -> CB b -> PRE a -> PRE b).
  enough (X : R (s, []) (s', outs)) by exact (X HQ HW F HC' P).
  apply (step_walk R op_wf) with (o := o); [.. | exact Hwf | exact H]; unfold R; clear.
  - intros s rs g s' _ Hx _ _ _ _ P. eapply PRE_frame; [| apply KL_same; eapply on_new_worker_same; exact Hx | exact P].
    unfold on_new_worker in Hx. inversion Hx; subst. reflexivity.
  - intros s w reason a p t pw s' _ _ Hx HQ HW _ _ P. eapply PRE_RL; [exact P | | eapply on_remove_worker_KL; exact Hx].
    eapply on_remove_worker_RL; [apply P | apply QSTMT_QA; exact HQ | exact HW | exact Hx].
  - intros s o c a _ _ _ _ _ P. exact (PRE_same _ _ eq_refl eq_refl P).
  - intros s job ids entries rq prio cl tlim mf s' Hwf Hx _ _ F HC' P.
    eapply handle_submit_array_D; [exact F | exact P | exact HC' | | exact Hx]. destruct entries; exact Hwf.
  - intros s job rqs ts mf s' _ Hx _ _ F HC' P. eapply handle_submit_graph_D; eassumption.
  - intros s mf s' _ Hx _ _ F _ P. eapply handle_open_D; eassumption.
  - intros s j s' _ Hx _ _ _ _ P. eapply handle_close_D; eassumption.
  - intros s j s' _ Hx _ _ _ _ P. eapply handle_cancel_D; eassumption.
  - intros s j s' _ Hx _ _ _ HC' P. eapply handle_forget_D; eassumption.
  - intros s w p m rest s' _ _ _ Hx _ _ _ _ P.
    pose proof (PRE_same (s, []) (with_procs s (set_proc (s_procs s) (wp_up p rest)), [OUp w m]) eq_refl eq_refl P) as P1. destruct m.
    + eapply PRE_RL; [exact P1 | eapply on_task_update_RL; [apply P1 | exact Hx] | eapply on_task_update_KL; exact Hx].
    + eapply PRE_RL; [exact P1 | apply RL_scr; [apply P1 | eapply on_retract_response_scr; exact Hx] | apply KL_same; eapply on_retract_response_same; exact Hx].
  - intros s sol s' _ _ Hx HQ _ _ _ P.
    eapply PRE_RL; [exact P | apply RL_scr; [apply P | eapply run_scheduling_scr; [apply QSTMT_QA; exact HQ | exact Hx]] | apply KL_same; eapply run_scheduling_same; exact Hx].
  - intros s lj _ _ _ _ _ _ P. exact (PRE_same _ _ eq_refl eq_refl P).
  - intros s w order p m rest p' ls _ _ _ _ _ _ _ _ P. exact (PRE_same _ _ eq_refl eq_refl P).
  - intros s w t how p p' ls _ _ _ _ _ _ _ P. exact (PRE_same _ _ eq_refl eq_refl P).
  - intros s w t p _ _ _ _ _ _ P. exact (PRE_same _ _ eq_refl eq_refl P).
  - intros s _ _ _ _ _ P. exact (PRE_same _ _ eq_refl eq_refl P).
Qed.

(** The step theorem: the dependency invariant [DIc] of the core is inductive, given the queue and
    worker-set facts about the pre-state and the job-layer invariants that hold along every run
    ([HOK], [fresh], [CB], and the companion [DJ] proved above). *)
Theorem deps_invariant_step s o s' outs :
  QSTMT (s_core s) -> WSTMT (s_core s) -> DIc (s_core s) -> CS (s_core s) ->
  HOK (s_hq s) -> fresh (s, []) -> op_wf o -> CB (s, []) -> DJ (s, []) ->
  step s o = Ok (s', outs) -> DIc (s_core s') /\ DJ (s', outs).
Proof.
  intros HQ HW D Hs Hok F Hwf HC J H.
  assert (P : PRE (s, [])) by (split; [split; [apply TS_of_CS; exact Hs | exact D] | exact J]).
  destruct (deps_invariant_step_pre _ _ _ _ HQ HW Hok F Hwf HC P H) as [[_ D'] J']. split; [exact D' | exact J'].
Qed.


Lemma run_fresh_app a : forall s b, run_fresh s (a ++ b) = true ->
  run_fresh s a = true /\ forall s1 o1, run s a = Ok (s1, o1) -> run_fresh s1 b = true.
Proof.
  induction a as [|o r IH]; cbn [app]; intros s b H.
  - split; [reflexivity|]. intros s1 o1 H1. cbn in H1. inversion H1; subst. exact H.
  - cbn [run_fresh] in H |- *. apply andb_true_iff in H. destruct H as [H0 H]. rewrite H0. cbn [andb].
    destruct (step s o) as [[s1 o1]| |] eqn:Es.
    + destruct (IH _ _ H) as [A B]. split; [exact A|]. intros s2 o2 H2. cbn [run] in H2. rewrite Es in H2. cbn [bind] in H2.
      apply bind_ok in H2. destruct H2 as ([s3 o3] & H3 & H2). inversion H2; subst. eapply B. exact H3.
    + split; [reflexivity|]. intros s2 o2 H2. cbn [run] in H2. rewrite Es in H2. discriminate.
    + split; [reflexivity|]. intros s2 o2 H2. cbn [run] in H2. rewrite Es in H2. discriminate.
Qed.

Lemma PRE_outs s o1 o2 : PRE (s, o1) -> PRE (s, o2).
Proof. intros P. exact P. Qed.

Section Run.
(** The two facts delivered by the queue invariant and the worker-set invariant. *)
Hypothesis HQ : forall ops r m s outs, Forall op_wf ops -> run_fresh (init_sys r m) ops = true ->
  run (init_sys r m) ops = Ok (s, outs) -> QSTMT (s_core s).
Hypothesis HW : forall ops r m s outs, Forall op_wf ops -> run_fresh (init_sys r m) ops = true ->
  run (init_sys r m) ops = Ok (s, outs) -> WSTMT (s_core s).

Lemma run_PRE ops : forall r m s outs,
  Forall op_wf ops -> run_fresh (init_sys r m) ops = true -> run (init_sys r m) ops = Ok (s, outs) -> PRE (s, outs).
Proof.
  induction ops as [|o ops IH] using rev_ind; intros r m s outs Hwf Hf H.
  - cbn in H. inversion H; subst. split; [split; [constructor|]|].
    + apply DI_make; unfold fm; cbn; intros; discriminate.
    + intros id t d Ex. cbn in Ex. discriminate.
  - apply Forall_app in Hwf. destruct Hwf as [Hwf1 Hwf2]. inversion Hwf2 as [|? ? Hwo _]; subst.
    destruct (run_fresh_app _ _ _ Hf) as [Hf1 _].
    destruct (run_app _ _ _ _ _ H) as (s1 & o1 & o2 & H1 & H2 & ->).
    cbn [run] in H2. apply bind_ok in H2. destruct H2 as ([s2 o3] & Hs & H2). cbn in H2. inversion H2; subst.
    destruct (init_facts r m) as (Hok0 & F0 & HC0).
    pose proof (run_hq_ok _ _ _ _ Hok0 H1) as Hok1.
    pose proof (G_run _ _ _ _ F0 H1) as G1.
    assert (F1 : fresh (s1, [])) by (apply (fresh_outs s1 o1); apply (g_fresh _ _ G1); exact F0).
    pose proof (run_CB _ _ _ _ Hok0 F0 Hwf1 HC0 H1) as HC1.
    pose proof (IH _ _ _ _ Hwf1 Hf1 H1) as P1.
    apply (PRE_outs s o3).
    eapply deps_invariant_step_pre; [exact (HQ _ _ _ _ _ Hwf1 Hf1 H1) | exact (HW _ _ _ _ _ Hwf1 Hf1 H1) | exact Hok1 | exact F1 | exact Hwo | eapply CB_outs; exact HC1 | eapply PRE_outs; exact P1 | exact Hs].
Qed.

Lemma GD_deps_ok c : GD c -> forallb (deps_ok c) (c_tasks c) = true.
Proof.
  intros [Hs D]. apply forallb_forall. intros t Hin.
  pose proof (in_find_task _ _ Hs Hin) as Ef. change (fm c (t_id t) = Some t) in Ef.
  unfold deps_ok. apply andb_true_iff. split.
  - pose proof (DI_cnt _ _ _ D Ef) as C.
    assert (Hflt : length (filter (fun d => match find_task (c_tasks c) d with Some dt => negb (is_finished dt) | None => false end) (t_deps t)) = dcount (fm c) t).
    { unfold dcount. apply flen_ext. intros d _. unfold inm, fm. destruct (find_task (c_tasks c) d) as [dt|] eqn:Ed; [|reflexivity].
      pose proof (dx_nofin _ _ D d dt Ed) as Hn. unfold is_finished. destruct (t_state dt); try reflexivity. congruence. }
    destruct (t_state t); try (apply forallb_forall; intros d Hd;
      pose proof (proj1 (flen_zero _ _) C d Hd) as Hz; unfold inm, fm in Hz; destruct (find_task (c_tasks c) d); [discriminate | reflexivity]).
    rewrite Hflt. apply N.eqb_eq. exact C.
  - apply forallb_forall. intros x Hx. destruct (dx_cons _ _ D _ _ _ Ef Hx) as (ct & Ec & Wc & Ic).
    unfold fm in Ec. rewrite Ec, Wc. cbn [andb]. apply tid_mem_In. exact Ic.
Qed.

(** C03 for EVERY history of the system model: in every reachable state the dependency
    bookkeeping of the core is exact - a Waiting task's counter is the number of its dependencies
    still in the core, every other task has no dependency left in the core (so no task is ever
    placed on a worker before all the tasks it depends on have finished), and the consumer lists
    mirror the dependency edges. *)
Theorem deps_invariant_run ops r m s outs :
  Forall op_wf ops -> run_fresh (init_sys r m) ops = true -> run (init_sys r m) ops = Ok (s, outs) ->
  forallb (deps_ok (s_core s)) (c_tasks (s_core s)) = true.
Proof. intros Hwf Hf H. apply GD_deps_ok. exact (proj1 (run_PRE _ _ _ _ _ Hwf Hf H)). Qed.

End Run.

Theorem deps_invariant :
  (forall ops r m s outs, Forall op_wf ops -> run_fresh (init_sys r m) ops = true ->
     run (init_sys r m) ops = Ok (s, outs) -> QSTMT (s_core s)) ->
  (forall ops r m s outs, Forall op_wf ops -> run_fresh (init_sys r m) ops = true ->
     run (init_sys r m) ops = Ok (s, outs) -> WSTMT (s_core s)) ->
  forall ops r m s outs, Forall op_wf ops -> run_fresh (init_sys r m) ops = true ->
    run (init_sys r m) ops = Ok (s, outs) ->
    forallb (deps_ok (s_core s)) (c_tasks (s_core s)) = true.
Proof. intros HQ HW ops r m s outs. apply deps_invariant_run; assumption. Qed.
