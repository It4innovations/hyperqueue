(** Generic frame lemmas: any projection [P] of a task that the state / instance setters do not
    touch is left unchanged, task by task, by everything in the core that only moves tasks between
    states, queues and workers.  Instantiated for the consumers ([BijCore], C02) and for the crash
    counter and crash limit ([CrashFrame], C07). *)
From HQ Require Import Base.Prelude Cluster.Types Cluster.Core Cluster.Reactor Cluster.Worker Cluster.Server Cluster.Sys Cluster.ProofsJob Cluster.ProofsMore Cluster.ProofsStep Cluster.BijBase.
From HQ Require Import Cluster.ModelFacts.
From Coq Require Import ZArith Lia Sorting.Sorted.
Local Open Scope N_scope.

Arguments N.add : simpl never.
Arguments N.sub : simpl never.

Definition TS (c : core) : Prop := StronglySorted tlt (map t_id (c_tasks c)).

Section Proj.
Variable A : Type.
Variable P : task -> A.
Hypothesis P_state : forall t s, P (with_state t s) = P t.
Hypothesis P_inst : forall t i, P (with_inst t i) = P t.

Definition pkey (t : task) : tid * A := (t_id t, P t).
Definition pkeys (c : core) : list (tid * A) := map pkey (c_tasks c).

Lemma map_fst_pkeys ts : map fst (map pkey ts) = map t_id ts.
Proof. rewrite map_map. reflexivity. Qed.

Lemma PS_keys c c' : pkeys c' = pkeys c -> TS c -> TS c'.
Proof. unfold TS, pkeys. intros E. rewrite <- (map_fst_pkeys (c_tasks c')), E, map_fst_pkeys. auto. Qed.

Lemma set_task_pkeys ts x t :
  StronglySorted tlt (map t_id ts) -> find_task ts (t_id x) = Some t -> P x = P t ->
  map pkey (set_task ts x) = map pkey ts.
Proof.
  induction ts as [|h r IH]; cbn [find_task set_task map]; [discriminate|]. intros Hs Hf Hc.
  destruct (tid_eqb (t_id x) (t_id h)) eqn:E.
  - inversion Hf; subst. apply tid_eqb_eq in E. cbn [map]. unfold pkey. rewrite E, Hc. reflexivity.
  - destruct (find_task_some _ _ _ Hf) as [Hin Hid].
    assert (tlt (t_id h) (t_id x)) as Hlt.
    { rewrite <- Hid. eapply sorted_head_lt; [exact Hs|]. apply in_map. exact Hin. }
    destruct (tid_ltb (t_id x) (t_id h)) eqn:L.
    + exfalso. eapply tlt_irrefl. eapply tlt_trans; [exact Hlt | exact L].
    + cbn [map]. f_equal. apply IH; [inversion Hs; assumption | exact Hf | exact Hc].
Qed.

Lemma upd_task_pframe c id t x :
  TS c -> find_task (c_tasks c) id = Some t -> t_id x = t_id t -> P x = P t ->
  pkeys (upd_task c x) = pkeys c.
Proof.
  intros Hs Hf Hi Hc. unfold pkeys, upd_task. cbn.
  destruct (find_task_some _ _ _ Hf) as [_ Hid].
  eapply set_task_pkeys; [exact Hs | rewrite Hi, Hid; exact Hf | exact Hc].
Qed.

Ltac pside := rewrite ?P_state, ?P_inst; reflexivity.

Ltac pframe_upd :=
  match goal with
  | Hs : TS ?c, Hf : find_task (c_tasks ?c) ?id = Some ?t |- pkeys (upd_task ?c ?x) = pkeys ?c =>
      apply (upd_task_pframe c id t x Hs Hf); [reflexivity | pside]
  | Hs : TS ?c, Hg : get_task (c_tasks ?c) ?id = Ok ?t |- pkeys (upd_task ?c ?x) = pkeys ?c =>
      apply (upd_task_pframe c id t x Hs (get_task_find _ _ _ Hg)); [reflexivity | pside]
  end.

Ltac pframe_step IH H E Hs :=
  eapply eq_trans; [eapply IH; cycle 1; [exact H | eapply PS_keys; [exact E | exact Hs]] | exact E].

Lemma retract_states_pframe ids : forall c acc c' acc',
  TS c -> retract_states c ids acc = Ok (c', acc') -> pkeys c' = pkeys c.
Proof.
  induction ids as [|id r IH]; cbn [retract_states]; intros c acc c' acc' Hs H; [inversion H; reflexivity|].
  apply bind_ok in H. destruct H as (t & Ht & H).
  destruct (t_state t); try discriminate.
  apply bind_ok in H. destruct H as (wk & _ & H). apply bind_ok in H. destruct H as (wk' & _ & H).
  assert (E : pkeys (upd_worker (upd_task c (with_state t (Retracting w))) wk') = pkeys c) by (change (pkeys (upd_task c (with_state t (Retracting w))) = pkeys c); pframe_upd).
  pframe_step IH H E Hs.
Qed.

Lemma try_remove_redirection_pframe c t c' : try_remove_redirection c t = Ok c' -> pkeys c' = pkeys c.
Proof.
  unfold try_remove_redirection. destruct (find_redirect _ _) as [[w rv]|]; intros H; inv_binds H; inversion H; reflexivity.
Qed.

Lemma reset_mn_workers_pframe ws : forall c id c', reset_mn_workers c ws id = Ok c' -> pkeys c' = pkeys c.
Proof.
  induction ws as [|w r IH]; cbn [reset_mn_workers]; intros c id c' H; [inversion H; reflexivity|].
  apply bind_ok in H. destruct H as (wk & _ & H). destruct (w_assign wk); [discriminate|].
  destruct (tid_eqb t id); [|discriminate]. rewrite (IH _ _ _ H). reflexivity.
Qed.

Lemma reset_mn_all_pframe ws : forall c c', reset_mn_all c ws = Ok c' -> pkeys c' = pkeys c.
Proof.
  induction ws as [|w r IH]; cbn [reset_mn_all]; intros c c' H; [inversion H; reflexivity|].
  apply bind_ok in H. destruct H as (wk & _ & H). rewrite (IH _ _ H). reflexivity.
Qed.

Lemma wake_consumers_pframe csm : forall c ret c' ret',
  TS c -> wake_consumers c csm ret = Ok (c', ret') -> pkeys c' = pkeys c.
Proof.
  induction csm as [|x r IH]; cbn [wake_consumers]; intros c ret c' ret' Hs H; [inversion H; reflexivity|].
  apply bind_ok in H. destruct H as (t & Ht & H).
  destruct (t_state t) as [n| | | | | |] eqn:Est; try discriminate.
  destruct (N.eqb n 0); [discriminate|].
  assert (E : pkeys (upd_task c (with_state t (Waiting (n - 1)))) = pkeys c) by pframe_upd.
  destruct (N.eqb (n - 1) 0).
  - apply bind_ok in H. destruct H as ([qs rt] & _ & H).
    pframe_step IH H E Hs.
  - pframe_step IH H E Hs.
Qed.

Lemma retract_response_states_pframe ids : forall c w acc c' acc',
  TS c -> retract_response_states c w ids acc = (c', acc') -> pkeys c' = pkeys c.
Proof.
  induction ids as [|id r IH]; cbn [retract_response_states]; intros c w acc c' acc' Hs H; [inversion H; reflexivity|].
  destruct (find_task (c_tasks c) id) as [t|] eqn:Ef; [|eapply IH; eassumption].
  destruct (t_state t); try (eapply IH; eassumption).
  destruct (N.eqb w w0); [|eapply IH; eassumption].
  destruct (find_redirect _ id) as [[target rv]|].
  - assert (E : pkeys (upd_task (with_redirects c (del_redirect (c_redirects c) id)) (with_state t (Assigned target rv))) = pkeys c).
    { apply (upd_task_pframe (with_redirects c (del_redirect (c_redirects c) id)) id t); [exact Hs | exact Ef | reflexivity | pside]. }
    pframe_step IH H E Hs.
  - assert (E : pkeys (upd_task c (with_state t (Waiting 0))) = pkeys c) by pframe_upd.
    pframe_step IH H E Hs.
Qed.

Lemma lost_prefilled_pframe l : forall c c', TS c -> lost_prefilled c l = Ok c' -> pkeys c' = pkeys c.
Proof.
  induction l as [|id r IH]; cbn [lost_prefilled]; intros c c' Hs H; [inversion H; reflexivity|].
  apply bind_ok in H. destruct H as (t & Ht & H). apply bind_ok in H. destruct H as (q & _ & H).
  apply bind_ok in H. destruct H as (q' & _ & H).
  assert (E : pkeys (upd_task c (with_state (with_inst t (t_inst t + 1)) (Waiting 0))) = pkeys c) by pframe_upd.
  pframe_step IH H E Hs.
Qed.

Lemma lost_assigned_pframe l : forall c running ret c' running' ret',
  TS c -> lost_assigned c l running ret = Ok (c', running', ret') -> pkeys c' = pkeys c.
Proof.
  induction l as [|id r IH]; cbn [lost_assigned]; intros c running ret c' running' ret' Hs H; [inversion H; reflexivity|].
  apply bind_ok in H. destruct H as (t & Ht & H). apply bind_ok in H. destruct H as ([[c1 t1] running1] & H1 & H).
  apply bind_ok in H. destruct H as ([qs rt] & _ & H).
  assert (E1 : pkeys c1 = pkeys c /\ c_tasks c1 = c_tasks c /\ t_id t1 = t_id t /\ P t1 = P t).
  { destruct (t_state t); try (inversion H1; subst; repeat split; try reflexivity; pside).
    destruct (find_redirect _ id); inversion H1; subst; repeat split; reflexivity. }
  destruct E1 as (E1 & Et & Ei & Ec).
  assert (E : pkeys (upd_task c1 (with_inst t1 (t_inst t1 + 1))) = pkeys c).
  { rewrite <- E1. apply (upd_task_pframe c1 id t); [eapply PS_keys; [exact E1 | exact Hs] | rewrite Et; apply get_task_find; exact Ht | exact Ei | rewrite P_inst; exact Ec]. }
  pframe_step IH H E Hs.
Qed.

Lemma map_one_pframe c m id w v rqres c' m' : TS c -> map_one c m id w v rqres = Ok (c', m') -> pkeys c' = pkeys c.
Proof.
  intros Hs H. unfold map_one in H.
  apply bind_ok in H. destruct H as (wk & _ & H). apply bind_ok in H. destruct H as (wk' & _ & H).
  apply bind_ok in H. destruct H as (t & Ht & H).
  assert (Hf : find_task (c_tasks c) id = Some t) by (apply get_task_find; exact Ht).
  destruct (t_state t); try discriminate.
  - inversion H; subst. apply (upd_task_pframe (upd_worker c wk') id t); [exact Hs | exact Hf | reflexivity | pside].
  - destruct (find_worker _ w0) as [wo|]; [|discriminate].
    apply bind_ok in H. destruct H as (wo' & _ & H).
    destruct (find_redirect _ id); [discriminate|]. inversion H; subst.
    match goal with |- pkeys (upd_task ?cc _) = _ => apply (upd_task_pframe cc id t); [exact Hs | exact Hf | reflexivity | pside] end.
  - destruct (find_redirect _ id) as [[ot vo]|].
    + inv_binds H. inversion H; subst. reflexivity.
    + inversion H; subst. reflexivity.
Qed.

Lemma rr_pass_pframe counts : forall c m tasks v rqres c' m' counts' rest,
  TS c -> rr_pass c m counts tasks v rqres = Ok (c', m', counts', rest) -> pkeys c' = pkeys c.
Proof.
  induction counts as [|[w n] r IH]; intros c m tasks v rqres c' m' counts' rest Hs H.
  - destruct tasks; cbn [rr_pass] in H; inversion H; reflexivity.
  - destruct tasks as [|id tl]; cbn [rr_pass] in H; [inversion H; reflexivity|].
    destruct (N.ltb 0 n).
    + apply bind_ok in H. destruct H as ([c1 m1] & H1 & H).
      apply bind_ok in H. destruct H as ([[[c2 m2] r'] tl'] & H2 & H). inversion H; subst.
      pose proof (map_one_pframe _ _ _ _ _ _ _ _ Hs H1) as E1.
      pframe_step IH H2 E1 Hs.
    + apply bind_ok in H. destruct H as ([[[c2 m2] r'] tl'] & H2 & H). inversion H; subst.
      eapply IH; eassumption.
Qed.

Lemma rr_loop_pframe fuel : forall c m counts tasks v rqres c' m',
  TS c -> rr_loop fuel c m counts tasks v rqres = Ok (c', m') -> pkeys c' = pkeys c.
Proof.
  induction fuel as [|k IH]; intros c m counts tasks v rqres c' m' Hs H; destruct tasks as [|id tl]; cbn [rr_loop] in H;
    try (inversion H; reflexivity); try discriminate.
  apply bind_ok in H. destruct H as ([[[c1 m1] counts1] rest] & H1 & H).
  pose proof (rr_pass_pframe _ _ _ _ _ _ _ _ _ _ Hs H1) as E1.
  pframe_step IH H E1 Hs.
Qed.

Lemma map_sn_pframe sol l : forall c m c' m', TS c -> map_sn c m sol l = Ok (c', m') -> pkeys c' = pkeys c.
Proof.
  induction l as [|[[rq v] counts] r IH]; cbn [map_sn]; intros c m c' m' Hs H; [inversion H; reflexivity|].
  apply bind_ok in H. destruct H as (rqd & _ & H). apply bind_ok in H. destruct H as (q & _ & H).
  apply bind_ok in H. destruct H as ([tasks q'] & _ & H). apply bind_ok in H. destruct H as ([c2 m2] & H2 & H).
  pose proof (rr_loop_pframe _ (with_queues c (set_queue (c_queues c) (N.to_nat rq) q')) _ _ _ _ _ _ _ Hs H2) as E2.
  change (pkeys c2 = pkeys c) in E2.
  pframe_step IH H E2 Hs.
Qed.

Lemma set_mn_workers_pframe l : forall c id first c', set_mn_workers c id l first = Ok c' -> pkeys c' = pkeys c.
Proof.
  induction l as [|w r IH]; cbn [set_mn_workers]; intros c id first c' H; [inversion H; reflexivity|].
  apply bind_ok in H. destruct H as (wk & _ & H). apply bind_ok in H. destruct H as (wk' & _ & H).
  rewrite (IH _ _ _ _ H). reflexivity.
Qed.

Lemma map_mn_sets_pframe sets : forall c rq mn c' mn', TS c -> map_mn_sets c rq mn sets = Ok (c', mn') -> pkeys c' = pkeys c.
Proof.
  induction sets as [|ws r IH]; cbn [map_mn_sets]; intros c rq mn c' mn' Hs H; [inversion H; reflexivity|].
  apply bind_ok in H. destruct H as (q & _ & H). destruct (q_take_one q) as [[id q']|]; [|discriminate].
  apply bind_ok in H. destruct H as (c2 & H2 & H). apply bind_ok in H. destruct H as (t & Ht & H).
  destruct (t_state t) as [n| | | | | |]; try discriminate. destruct n; [|discriminate].
  pose proof (set_mn_workers_pframe _ _ _ _ _ H2) as E2. change (pkeys c2 = pkeys c) in E2.
  assert (Hs2 : TS c2) by (eapply PS_keys; [exact E2 | exact Hs]).
  assert (E : pkeys (upd_task c2 (with_state t (RunningMN ws))) = pkeys c2) by pframe_upd.
  assert (E3 : pkeys (upd_task c2 (with_state t (RunningMN ws))) = pkeys c) by (rewrite E; exact E2).
  pframe_step IH H E3 Hs.
Qed.

Lemma map_mn_pframe l : forall c mn c' mn', TS c -> map_mn c mn l = Ok (c', mn') -> pkeys c' = pkeys c.
Proof.
  induction l as [|[[rq v] sets] r IH]; cbn [map_mn]; intros c mn c' mn' Hs H; [inversion H; reflexivity|].
  apply bind_ok in H. destruct H as ([c1 mn1] & H1 & H).
  pose proof (map_mn_sets_pframe _ _ _ _ _ _ Hs H1) as E1.
  pframe_step IH H E1 Hs.
Qed.

Lemma prefill_mark_pframe l : forall c w c', TS c -> prefill_mark c w l = Ok c' -> pkeys c' = pkeys c.
Proof.
  induction l as [|id r IH]; cbn [prefill_mark]; intros c w c' Hs H; [inversion H; reflexivity|].
  apply bind_ok in H. destruct H as (t & Ht & H). destruct (negb (is_waiting t)); [discriminate|].
  apply bind_ok in H. destruct H as (wk & _ & H). apply bind_ok in H. destruct H as (wk' & _ & H).
  assert (E : pkeys (upd_task c (with_state t (Prefilled w))) = pkeys c) by pframe_upd.
  pframe_step IH H E Hs.
Qed.

Lemma prefill_workers_pframe ws : forall c m qi psize c' m', TS c -> prefill_workers c m qi psize ws = Ok (c', m') -> pkeys c' = pkeys c.
Proof.
  induction ws as [|w r IH]; cbn [prefill_workers]; intros c m qi psize c' m' Hs H; [inversion H; reflexivity|].
  apply bind_ok in H. destruct H as (q & _ & H). apply bind_ok in H. destruct H as ([ids q'] & _ & H).
  apply bind_ok in H. destruct H as (c2 & H2 & H).
  pose proof (prefill_mark_pframe _ (with_queues c (set_queue (c_queues c) qi q')) _ _ Hs H2) as E2. change (pkeys c2 = pkeys c) in E2.
  pframe_step IH H E2 Hs.
Qed.

Lemma prefill_queues_pframe n : forall c m worder qi top c' m',
  TS c -> prefill_queues c m worder qi n top = Ok (c', m') -> pkeys c' = pkeys c.
Proof.
  induction n as [|k IH]; cbn [prefill_queues]; intros c m worder qi top c' m' Hs H; [inversion H; reflexivity|].
  apply bind_ok in H. destruct H as (q & _ & H).
  destruct (q_top_priority q) as [tp|]; [|eapply IH; eassumption].
  destruct (negb (Z.eqb tp top)); [eapply IH; eassumption|].
  destruct (N.eqb _ 0); [eapply IH; eassumption|].
  destruct (existsb _ (q_top_task_ids q)).
  - destruct (forallb _ (q_top_task_ids q)); [eapply IH; eassumption | discriminate].
  - match type of H with match ?ws with [] => _ | _ => _ end = _ => destruct ws eqn:Ews end; [eapply IH; eassumption|].
    destruct (N.eqb _ 0); [eapply IH; eassumption|].
    apply bind_ok in H. destruct H as ([c1 m1] & H1 & H).
    pose proof (prefill_workers_pframe _ _ _ _ _ _ _ Hs H1) as E1.
    pframe_step IH H E1 Hs.
Qed.

End Proj.
