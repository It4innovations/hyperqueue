(** Protocol invariant, part 17: the loss of a worker ([OpLost]) preserves [PROTO]. *)
From HQ Require Import Base.Prelude Cluster.Types Cluster.Core Cluster.Reactor Cluster.Worker Cluster.Server Cluster.Sys Cluster.ProofsJob Cluster.ProofsMore Cluster.ProofsTerminal Cluster.ProofsStep Cluster.ProofsFinal Cluster.BijBase Cluster.BijCore Cluster.BijHq Cluster.BijSt Cluster.BijReact Cluster.InvWBase Cluster.InvWView Cluster.InvWCore Cluster.InvWServer Cluster.NoPanicC1 Cluster.NoPanicC2 Cluster.NoPanicU0 Cluster.NoPanicU1 Cluster.NoPanicU2 Cluster.NoPanicU5 Cluster.NoPanicU6 Cluster.NoPanicU7 Cluster.NoPanicU8 Cluster.NoPanicU9 Cluster.NoPanicU10 Cluster.NoPanicU11 Cluster.NoPanicU14 Cluster.NoPanicU15.
From HQ Require Import Cluster.StepShape.
From HQ Require Import Cluster.ModelFacts.
From Coq Require Import ZArith Lia Sorting.Sorted.
Local Open Scope N_scope.

Notation jactive := NoPanicU6.jactive.
Notation x0 := NoPanicU6.x0.
Notation tsorted := NoPanicU6.tsorted.

Lemma SP_del_proc X s w : SP X s no_pum [] -> SP X (with_procs (fst s) (del_proc (s_procs (fst s)) w), snd s) no_pum [].
Proof.
  intros [H9 Hcs Hact H1 Hd Ht H3 H4 Hpres Hpum H5 H6 H7 R1 R2].
  assert (Hfp : forall w' p, find_proc (del_proc (s_procs (fst s)) w) w' = Some p -> find_proc (s_procs (fst s)) w' = Some p).
  { intros w' p Hp. rewrite (find_del_proc _ _ _ H9) in Hp. destruct (N.eqb w' w); [discriminate | exact Hp]. }
  constructor; cbn [fst snd core_of hq_of with_procs s_core s_hq s_procs] in *; try assumption.
  - apply del_proc_sorted. exact H9.
  - intros w' p x t Hp. apply H1. apply Hfp. exact Hp.
  - intros w' p Hp. apply Hd. apply Hfp. exact Hp.
  - intros w' p Hp. apply Ht. apply Hfp. exact Hp.
  - intros w' p Hp. eapply H3. apply Hfp. exact Hp.
  - intros w' p x Hp. apply H4. apply Hfp. exact Hp.
  - intros w' Hw'. exfalso. apply Hw'. reflexivity.
Qed.

Lemma SP_upd_view X s y t t' :
  SP X s no_pum [] -> find_task (c_tasks (core_of s)) y = Some t -> t_id t' = y ->
  (X y = false ->
     (forall w p jr, find_proc (s_procs (fst s)) w = Some p -> view_of (t_state t') w jr = view_of (t_state t) w jr) /\
     mn_task_ok (core_of s) t' = true /\ jr_ok (hq_of s) t' = true /\ (forall w rv, t_state t' = Assigned w rv -> rv = 0)) ->
  SP X (st_core s (upd_task (core_of s) t')) no_pum [].
Proof.
  intros HS Hy Eid Hc.
  change (st_core s (upd_task (core_of s) t')) with (mkSys (upd_task (core_of s) t') (hq_of s) (s_procs (fst s)), snd s).
  apply (SP_gen (fun z => tid_eqb z y) X X s no_pum [] (upd_task (core_of s) t') _ _ no_pum [] HS).
  - unfold tsorted. cbn [upd_task with_tasks c_tasks]. apply set_task_sorted. exact (sp_cs _ _ _ _ HS).
  - reflexivity.
  - exact (sp_rvr _ _ _ _ HS).
  - intros z tz E Hz HX. rewrite find_upd_task, Eid, E in Hz. exists tz. repeat split; assumption.
  - intros w z _. split; reflexivity.
  - auto.
  - intros z tz Hz. rewrite find_upd_task, Eid in Hz. destruct (tid_eqb z y) eqn:E; [apply tid_eqb_eq in E; subst z|]; congruence.
  - intros w p z Hp [[]|[]].
  - intros w p Hp. split; [exact (sp_down _ _ _ _ HS _ _ Hp) | reflexivity].
  - auto.
  - intros x tx E Hx HX. apply tid_eqb_eq in E. subst x. rewrite find_upd_task, Eid, tid_eqb_refl in Hx. inversion Hx; subst tx. clear Hx.
    destruct (Hc HX) as (Hv & Hm & Hj & Hr).
    split; [exact (sp_act _ _ _ _ HS _ _ Hy HX)|]. split; [exact Hm|]. split; [exact Hj|]. split; [exact Hr|].
    intros w p Hp. rewrite (Hv w p _ Hp). exact (sp_words _ _ _ _ HS w p y t Hp Hy HX).
Qed.

Lemma SP_upd_hide X s y t t' :
  SP X s no_pum [] -> find_task (c_tasks (core_of s)) y = Some t -> t_id t' = y ->
  SP (xadd X y) (st_core s (upd_task (core_of s) t')) no_pum [].
Proof.
  intros HS Hy Eid. apply (SP_CF X (xadd X y)); [exact HS | | intros z Hz; unfold xadd in Hz; apply orb_false_iff in Hz; apply Hz].
  apply (CF_upd_task _ _ t); [rewrite Eid; exact Hy|]. rewrite Eid. unfold xadd. rewrite tid_eqb_refl. discriminate.
Qed.

Lemma view_absent_worker (s : st) (st0 : tstate) w w' p jr :
  find_proc (s_procs (fst s)) w = None -> find_proc (s_procs (fst s)) w' = Some p ->
  match st0 with Assigned w1 _ | Prefilled w1 | Retracting w1 | Running w1 _ => w1 = w | RunningMN (w1 :: _) => w1 = w | _ => True end ->
  view_of st0 w' jr = VN.
Proof.
  intros Hn Hp Hst. assert (Hne : N.eqb w w' = false) by (apply N.eqb_neq; intros ->; congruence).
  destruct st0 as [n|w1 rv1|w1|w1|w1 rv1|[|w1 ws]|]; cbn [view_of]; try reflexivity; subst w1; rewrite Hne; reflexivity.
Qed.

Definition Xr (r : list tid) (X : tid -> bool) : tid -> bool := fun y => tid_mem y r || X y.

Lemma SP_Xext X X' s pum pd : SP X s pum pd -> (forall y, X' y = X y) -> SP X' s pum pd.
Proof. intros HS E. apply (SP_more_hidden X X'); [exact HS|]. intros y Hy. rewrite <- E. exact Hy. Qed.

(** the words of a task that no connected worker knows *)
Definition silent (s : st) (y : tid) : Prop :=
  forall w p, find_proc (s_procs (fst s)) w = Some p -> uitems y (p_up p) = [] /\ local p y = LNone /\ ditems y (p_down p) = [].

Lemma silent_of_SP X s y t w :
  SP X s no_pum [] -> find_task (c_tasks (core_of s)) y = Some t -> X y = false -> find_proc (s_procs (fst s)) w = None ->
  match t_state t with Assigned w1 _ | Prefilled w1 | Retracting w1 | Running w1 _ => w1 = w | RunningMN (w1 :: _) => w1 = w | _ => True end ->
  silent s y.
Proof.
  intros HS Hy HX Hn Hst w' p Hp. pose proof (sp_words _ _ _ _ HS w' p y t Hp Hy HX) as Hl.
  rewrite (view_absent_worker s _ w w' p _ Hn Hp Hst) in Hl. cbn [no_pum app] in Hl. rewrite msgs_for_nil, app_nil_r in Hl.
  destruct (L_VN _ _ _ Hl) as (A & B & C). auto.
Qed.

Lemma SP_unplace X s w y t t' :
  SP X s no_pum [] -> find_task (c_tasks (core_of s)) y = Some t -> find_proc (s_procs (fst s)) w = None ->
  match t_state t with Assigned w1 _ | Prefilled w1 | Retracting w1 => w1 = w | _ => False end ->
  t_id t' = y -> t_state t' = Waiting 0 ->
  SP X (st_core s (upd_task (core_of s) t')) no_pum [].
Proof.
  intros HS Hy Hn Hst Eid Est'. apply (SP_upd_view X s y t t' HS Hy Eid). intros HX. split; [|split; [|split]].
  - intros w' p jr Hp. rewrite Est'. cbn [view_of]. symmetry. apply (view_absent_worker s _ w w' p jr Hn Hp).
    generalize Hst. destruct (t_state t); intros H0; try contradiction; exact H0.
  - unfold mn_task_ok. rewrite Est'. reflexivity.
  - pose proof (sp_jr _ _ _ _ HS _ _ Hy HX) as J. unfold jr_ok in *. rewrite Est', Eid. rewrite (proj2 (find_task_some _ _ _ Hy)) in J.
    generalize Hst. destruct (t_state t); intros H0; try contradiction; exact J.
  - intros w1 rv1 E. rewrite Est' in E. discriminate.
Qed.

Lemma SP_with_queues X s c qs pum pd : SP X (st_core s c) pum pd -> SP X (st_core s (with_queues c qs)) pum pd.
Proof.
  intros HS. apply (SP_ext X (st_core (st_core s c) (with_queues c qs))); [|reflexivity|reflexivity|reflexivity].
  apply (SP_CF X X); [exact HS | apply CF_tasks_same; auto | auto].
Qed.

Lemma lost_prefilled_SP X s w l : forall c c',
  SP X (st_core s c) no_pum [] -> find_proc (s_procs (fst s)) w = None -> NoDup l ->
  (forall id t, In id l -> find_task (c_tasks c) id = Some t -> t_state t = Prefilled w) ->
  lost_prefilled c l = Ok c' ->
  SP X (st_core s c') no_pum [] /\ (forall y, ~ In y l -> find_task (c_tasks c') y = find_task (c_tasks c) y).
Proof.
  induction l as [|id r IH]; cbn [lost_prefilled]; intros c c' HS Hn Hnd Hst H; [inversion H; subst; auto|].
  inversion Hnd as [|? ? Hni Hnd']; subst.
  apply bind_ok in H. destruct H as (t & Ht & H). unfold get_task in Ht. destruct (find_task (c_tasks c) id) as [t0|] eqn:Ef; [|discriminate]. inversion Ht; subst t0. clear Ht.
  apply bind_ok in H. destruct H as (q & _ & H). apply bind_ok in H. destruct H as (q' & _ & H).
  destruct (find_task_some _ _ _ Ef) as [_ Eid]. pose proof (Hst id t (or_introl eq_refl) Ef) as Est.
  set (t' := with_state (with_inst t (t_inst t + 1)) (Waiting 0)) in *.
  assert (S1 : SP X (st_core s (upd_task c t')) no_pum []).
  { apply (SP_unplace X (st_core s c) w id t t' HS Ef Hn); [rewrite Est; reflexivity | exact Eid | reflexivity]. }
  destruct (IH (with_queues (upd_task c t') (set_queue (c_queues c) (N.to_nat (t_rq t)) q')) c') as [S2 F2]; [| exact Hn | exact Hnd' | | exact H |].
  - apply SP_with_queues. exact S1.
  - intros id0 t0 Hin Hf0. cbn [with_queues c_tasks] in Hf0. rewrite find_upd_task in Hf0. cbn [t' with_state with_inst t_id] in Hf0. rewrite Eid in Hf0.
    destruct (tid_eqb id0 id) eqn:E; [apply tid_eqb_eq in E; subst id0; contradiction|]. apply (Hst id0 t0 (or_intror Hin) Hf0).
  - split; [exact S2|]. intros y Hy. rewrite F2 by (intros X1; apply Hy; right; exact X1). cbn [with_queues c_tasks]. rewrite find_upd_task.
    cbn [t' with_state with_inst t_id]. rewrite Eid. destruct (tid_eqb y id) eqn:E; [apply tid_eqb_eq in E; subst y; exfalso; apply Hy; left; reflexivity | reflexivity].
Qed.

Lemma lost_assigned_SP s w l : forall X c running ret c' running' ret',
  SP (Xr running X) (st_core s c) no_pum [] -> find_proc (s_procs (fst s)) w = None -> NoDup l ->
  (forall id, In id l -> ~ In id running) ->
  (forall id t, In id l -> find_task (c_tasks c) id = Some t ->
     match t_state t with Assigned w1 _ | Running w1 _ => w1 = w | Retracting _ => True | _ => False end) ->
  (forall y, In y running -> exists t, find_task (c_tasks c) y = Some t /\ t_state t = Waiting 0) ->
  lost_assigned c l running ret = Ok (c', running', ret') ->
  SP (Xr running' X) (st_core s c') no_pum [] /\
  (forall y, In y running' -> exists t, find_task (c_tasks c') y = Some t /\ t_state t = Waiting 0) /\
  (forall y, In y running' -> In y running \/ (In y l /\ exists t w1 rv1, find_task (c_tasks c) y = Some t /\ t_state t = Running w1 rv1)) /\
  (forall y, ~ In y l -> find_task (c_tasks c') y = find_task (c_tasks c) y).
Proof.
  induction l as [|id r IH]; cbn [lost_assigned]; intros X c running ret c' running' ret' HS Hn Hnd Hnr Hst Hrun H.
  - inversion H; subst. split; [exact HS|]. split; [exact Hrun|]. split; auto.
  - inversion Hnd as [|? ? Hni Hnd']; subst.
    apply bind_ok in H. destruct H as (t & Ht & H). unfold get_task in Ht. destruct (find_task (c_tasks c) id) as [t0|] eqn:Ef; [|discriminate]. inversion Ht; subst t0. clear Ht.
    apply bind_ok in H. destruct H as ([[c1 t1] running1] & H1 & H).
    apply bind_ok in H. destruct H as ([qs ret1] & _ & H).
    destruct (find_task_some _ _ _ Ef) as [_ Eid]. pose proof (Hst id t (or_introl eq_refl) Ef) as Hc.
    set (t2 := with_inst t1 (t_inst t1 + 1)) in *.
    assert (HXid : Xr running X id = false -> X id = false) by (unfold Xr; intros E; apply orb_false_iff in E; apply E).
    (* the three cases give: the new hidden set, the new core, the facts *)
    assert (A : SP (Xr running1 X) (st_core s (upd_task c1 t2)) no_pum [] /\ t_id t2 = id /\
                (forall y, find_task (c_tasks (upd_task c1 t2)) y = if tid_eqb y id then Some t2 else find_task (c_tasks c) y) /\
                ((running1 = running /\ (Xr running X id = false -> True)) \/ (running1 = running ++ [id] /\ t_state t2 = Waiting 0 /\ exists w1 rv1, t_state t = Running w1 rv1))).
    { destruct (t_state t) as [n|w1 rv1|w1|w1|w1 rv1|ws|] eqn:Est; try (exfalso; exact Hc).
      - (* Assigned *) subst w1. inversion H1; subst c1 t1 running1. clear H1. split; [|split; [cbn; exact Eid | split; [|left; auto]]].
        + apply (SP_unplace _ (st_core s c) w id t t2 HS Ef Hn); [rewrite Est; reflexivity | exact Eid | reflexivity].
        + intros y. rewrite find_upd_task. cbn [t2 with_state with_inst t_id]. rewrite Eid. reflexivity.
      - (* Retracting *) destruct (find_redirect (c_redirects c) id) as [rd|]; [|discriminate]. inversion H1; subst c1 t1 running1. clear H1.
        split; [|split; [cbn; exact Eid | split; [|left; auto]]].
        + assert (S1 : SP (Xr running X) (st_core s (with_redirects c (del_redirect (c_redirects c) id))) no_pum []).
          { apply (SP_ext (Xr running X) (st_core (st_core s c) (with_redirects c (del_redirect (c_redirects c) id)))); [|reflexivity|reflexivity|reflexivity].
            apply (SP_CF (Xr running X) (Xr running X)); [exact HS | apply CF_tasks_same; auto; cbn; intros r0; apply del_redirect_in | auto]. }
          apply (SP_upd_view _ _ id t t2 S1 Ef); [cbn; exact Eid|]. intros HX. split; [|split; [|split]].
          * intros w' p jr Hp. reflexivity.
          * pose proof (sp_mnt _ _ _ _ HS _ _ Ef HX) as M. unfold mn_task_ok in *. cbn [t2 with_inst t_state t_rq]. exact M.
          * pose proof (sp_jr _ _ _ _ HS _ _ Ef HX) as J. unfold jr_ok in *. cbn [t2 with_inst t_state t_id]. exact J.
          * intros w2 rv2 E. cbn [t2 with_inst t_state] in E. congruence.
        + intros y. rewrite find_upd_task. cbn [t2 with_inst t_id with_redirects c_tasks]. rewrite Eid. reflexivity.
      - (* Running *) subst w1. inversion H1; subst c1 t1 running1. clear H1. split; [|split; [cbn; exact Eid | split; [|right; split; [reflexivity | split; [reflexivity | eauto]]]]].
        + apply (SP_Xext (xadd (Xr running X) id)); [apply (SP_upd_hide _ (st_core s c) id t t2 HS Ef); cbn; exact Eid|].
          intros y. unfold Xr, xadd. rewrite tid_mem_app. cbn [tid_mem]. rewrite orb_false_r. destruct (tid_mem y running), (tid_eqb y id), (X y); reflexivity.
        + intros y. rewrite find_upd_task. cbn [t2 with_state with_inst t_id]. rewrite Eid. reflexivity. }
    destruct A as (S1 & Eid2 & Hfind & Hcase).
    destruct (IH X (with_queues (upd_task c1 t2) qs) running1 (ret ++ ret1) c' running' ret') as (S2 & R2 & O2 & F2); [| exact Hn | exact Hnd' | | | | exact H |].
    + apply SP_with_queues. exact S1.
    + intros id0 Hin. destruct Hcase as [[-> _]|(-> & _)]; [apply Hnr; right; exact Hin|].
      rewrite in_app_iff. intros [X1|[<-|[]]]; [exact (Hnr id0 (or_intror Hin) X1) | contradiction].
    + intros id0 t0 Hin Hf0. cbn [with_queues c_tasks] in Hf0. rewrite Hfind in Hf0.
      destruct (tid_eqb id0 id) eqn:E; [apply tid_eqb_eq in E; subst id0; contradiction|]. apply (Hst id0 t0 (or_intror Hin) Hf0).
    + intros y Hy. cbn [with_queues c_tasks]. rewrite Hfind. destruct (tid_eqb y id) eqn:E.
      * apply tid_eqb_eq in E. subst y. destruct Hcase as [[-> _]|(-> & Ew & _)]; [exfalso; exact (Hnr id (or_introl eq_refl) Hy) | eauto].
      * destruct Hcase as [[-> _]|(-> & _)]; [apply Hrun; exact Hy|]. rewrite in_app_iff in Hy. destruct Hy as [Hy|[<-|[]]]; [apply Hrun; exact Hy | rewrite tid_eqb_refl in E; discriminate].
    + split; [exact S2|]. split; [exact R2|]. split.
      * intros y Hy. destruct (O2 y Hy) as [Hy1|(Hy1 & t0 & w1 & rv1 & Hf0 & Es0)].
        -- destruct Hcase as [[-> _]|(-> & _ & w1 & rv1 & Est)]; [left; exact Hy1|]. rewrite in_app_iff in Hy1.
           destruct Hy1 as [Hy1|[<-|[]]]; [left; exact Hy1 | right; split; [left; reflexivity | eauto]].
        -- right. split; [right; exact Hy1|]. cbn [with_queues c_tasks] in Hf0. rewrite Hfind in Hf0.
           destruct (tid_eqb y id) eqn:E; [apply tid_eqb_eq in E; subst y; contradiction | eauto].
      * intros y Hy. rewrite F2 by (intros X1; apply Hy; right; exact X1). cbn [with_queues c_tasks]. rewrite Hfind.
        destruct (tid_eqb y id) eqn:E; [apply tid_eqb_eq in E; subst y; exfalso; apply Hy; left; reflexivity | reflexivity].
Qed.

Lemma send_worker_procs_none s w m s' w0 : send_worker s w m = Ok s' -> find_proc (s_procs (fst s)) w0 = None -> find_proc (s_procs (fst s')) w0 = None.
Proof.
  unfold send_worker. destruct (find_proc (s_procs (fst s)) w) as [p|] eqn:Hp; [|discriminate]. intros H Hn. inversion H; subst. cbn [fst with_procs s_procs].
  rewrite find_set_proc. cbn [push_down p_id]. destruct (N.eqb w0 (p_id p)) eqn:E; [|exact Hn].
  apply N.eqb_eq in E. destruct (find_proc_some _ _ _ Hp) as [_ Hid]. rewrite Hid in E. subst w0. congruence.
Qed.

Lemma lost_retracting_SP w l : forall s s',
  SP x0 s no_pum [] -> find_proc (s_procs (fst s)) w = None -> lost_retracting s w l = Ok s' ->
  SP x0 s' no_pum [] /\ find_proc (s_procs (fst s')) w = None.
Proof.
  induction l as [|id r IH]; cbn [lost_retracting]; intros s s' HS Hn H; [inversion H; subst; auto|].
  apply bind_ok in H. destruct H as (t & Ht & H). unfold get_task in Ht.
  destruct (find_task (c_tasks (core_of s)) id) as [t0|] eqn:Ef; [|discriminate]. inversion Ht; subst t0. clear Ht.
  destruct (find_task_some _ _ _ Ef) as [_ Eid].
  destruct (t_state t) as [n|w1 rv1|w1|w1|w1 rv1|ws|] eqn:Est; try (eapply IH; eassumption).
  destruct (N.eqb w w1) eqn:Ew; [|eapply IH; eassumption]. apply N.eqb_eq in Ew. subst w1.
  set (ti := with_inst t (t_inst t + 1)) in *.
  assert (Hvn : forall w' p jr, find_proc (s_procs (fst s)) w' = Some p -> view_of (t_state t) w' jr = VN).
  { intros w' p jr Hp. rewrite Est. apply (view_absent_worker s _ w w' p jr Hn Hp). reflexivity. }
  pose proof (sp_mnt _ _ _ _ HS _ _ Ef eq_refl) as Hm. pose proof (sp_jr _ _ _ _ HS _ _ Ef eq_refl) as Hj.
  destruct (find_redirect (c_redirects (core_of s)) id) as [[tg rv]|] eqn:Er.
  - apply bind_ok in H. destruct H as (s1 & Hsend & H).
    set (t' := with_state ti (Assigned tg rv)) in *.
    set (c' := upd_task (with_redirects (core_of s) (del_redirect (c_redirects (core_of s)) id)) t') in *.
    set (msg := DCompute [ctask_of t' (Some rv) []]) in *.
    assert (Hrv : rv = 0) by exact (sp_rvr _ _ _ _ HS _ (find_redirect_in _ _ _ Er)).
    assert (Hit : forall w' y, ditems y (msgs_for w' [(tg, msg)]) = if N.eqb tg w' then sel id y (IDC (Some rv) false) else []).
    { intros w' y. rewrite msgs_for_cons, msgs_for_nil. destruct (N.eqb tg w'); [|reflexivity].
      cbn [ditems flat_map ditems_msg msg ctask_of ct_id ct_rv ct_nodes is_nil negb t' ti with_state with_inst t_id]. rewrite Eid, !app_nil_r. reflexivity. }
    assert (S1 : SP x0 (st_core s c') no_pum [(tg, msg)]).
    { change (st_core s c') with (mkSys c' (hq_of s) (s_procs (fst s)), snd s).
      apply (SP_gen (fun y => tid_eqb y id) x0 x0 s no_pum [] c' _ _ no_pum [(tg, msg)] HS).
      - unfold tsorted, c'. cbn [upd_task with_tasks with_redirects c_tasks]. apply set_task_sorted. exact (sp_cs _ _ _ _ HS).
      - reflexivity.
      - intros r0 Hr0. apply (sp_rvr _ _ _ _ HS). unfold c' in Hr0. cbn [upd_task with_tasks with_redirects c_redirects] in Hr0. eapply del_redirect_in; exact Hr0.
      - intros y ty E Hy HX. unfold c' in Hy. rewrite find_upd_task in Hy. cbn [t' ti with_state with_inst t_id with_redirects c_tasks] in Hy. rewrite Eid, E in Hy.
        exists ty. repeat split; assumption.
      - intros w' y E. split; [reflexivity|]. rewrite Hit, msgs_for_nil. apply tid_eqb_neq in E. destruct (N.eqb tg w'); [apply sel_other; congruence | reflexivity].
      - auto.
      - intros y ty Hy. unfold c' in Hy. rewrite find_upd_task in Hy. cbn [t' ti with_state with_inst t_id with_redirects c_tasks] in Hy. rewrite Eid in Hy.
        destruct (tid_eqb y id) eqn:E; [apply tid_eqb_eq in E; subst y|]; congruence.
      - intros w' p y Hp [[]|Hy]. rewrite msgs_for_cons, msgs_for_nil in Hy. destruct (N.eqb tg w'); [|destruct Hy].
        cbn [flat_map dmsg_tids msg map ctask_of ct_id t' ti with_state with_inst t_id app] in Hy. destruct Hy as [<-|[]]. rewrite Eid. eapply (sp_pres _ _ _ _ HS). exact Ef.
      - intros w' p Hp. rewrite msgs_for_nil. apply (tab_pending x0 s no_pum [] w' p _ HS Hp eq_refl).
        rewrite msgs_for_cons, msgs_for_nil. destruct (N.eqb tg w'); [right | left; reflexivity]. eexists. split; [reflexivity|].
        cbn [forallb]. rewrite andb_true_r. unfold ct_ok. cbn [ctask_of ct_rv ct_rq ct_nodes is_nil orb t' ti with_state with_inst t_rq]. rewrite Hrv, N.eqb_refl, andb_true_r. cbn [andb].
        apply N.ltb_lt. unfold mn_task_ok in Hm. rewrite Est in Hm.
        destruct (nth_error (c_rqs (core_of s)) (N.to_nat (t_rq t))) eqn:E; [|discriminate].
        assert (Hlt : (N.to_nat (t_rq t) < length (c_rqs (core_of s)))%nat) by (apply nth_error_Some; congruence). lia.
      - auto.
      - intros x tx E Hx _. apply tid_eqb_eq in E. subst x. unfold c' in Hx. rewrite find_upd_task in Hx. cbn [t' ti with_state with_inst t_id with_redirects c_tasks] in Hx.
        rewrite Eid, tid_eqb_refl in Hx. inversion Hx; subst tx. clear Hx.
        split; [exact (sp_act _ _ _ _ HS _ _ Ef eq_refl)|]. split; [|split; [|split]].
        + unfold mn_task_ok, t', ti, c' in *. rewrite Est in Hm. cbn [with_state with_inst t_state t_rq upd_task with_tasks with_redirects c_rqs]. exact Hm.
        + unfold jr_ok, t', ti in *. rewrite Est in Hj. cbn [with_state with_inst t_state t_id]. exact Hj.
        + intros w1 rv1 E1. unfold t', ti in E1. cbn [with_state t_state] in E1. inversion E1; subst. reflexivity.
        + intros w' p Hp. pose proof (sp_words _ _ _ _ HS w' p id t Hp Ef eq_refl) as Hw. rewrite (Hvn w' p _ Hp), msgs_for_nil, app_nil_r in Hw.
          unfold t', ti. cbn [with_state t_state view_of]. rewrite ditems_app, Hit, sel_same.
          destruct (N.eqb tg w'); [apply LA_asg; exact Hw | rewrite app_nil_r; exact Hw]. }
    pose proof (SP_send _ _ _ _ _ _ _ S1 Hsend) as S2.
    apply (IH s1 s' S2); [|exact H]. eapply send_worker_procs_none; [exact Hsend | exact Hn].
  - set (t' := with_state ti (Waiting 0)) in *.
    apply (IH (st_core s (upd_task (core_of s) t')) s'); [| exact Hn | exact H].
    apply (SP_unplace x0 s w id t t' HS Ef Hn); [rewrite Est; reflexivity | exact Eid | reflexivity].
Qed.

(** * The functions between the core phase and the job-layer phase do not look at the job layer *)
Definition rehq (s : st) (h : hq) : st := (mkSys (core_of s) h (s_procs (fst s)), snd s).

Lemma send_worker_rehq s w m s' h : send_worker s w m = Ok s' -> send_worker (rehq s h) w m = Ok (rehq s' h).
Proof.
  unfold send_worker. cbn [rehq fst snd s_procs]. destruct (find_proc (s_procs (fst s)) w) as [p|]; [|discriminate]. intros H; inversion H; subst. reflexivity.
Qed.
Lemma send_all_rehq msgs : forall s s' h, send_all s msgs = Ok s' -> send_all (rehq s h) msgs = Ok (rehq s' h).
Proof.
  induction msgs as [|[w m] r IH]; cbn [send_all]; intros s s' h H; [inversion H; reflexivity|].
  apply bind_ok in H. destruct H as (s1 & H1 & H). rewrite (send_worker_rehq _ _ _ _ h H1). cbn [bind]. apply IH. exact H.
Qed.
Lemma process_retracted_rehq s ret s' h : process_retracted s ret = Ok s' -> process_retracted (rehq s h) ret = Ok (rehq s' h).
Proof.
  unfold process_retracted. destruct ret; [intros H; inversion H; reflexivity|]. intros H.
  apply bind_ok in H. destruct H as ([c' groups] & H1 & H). change (core_of (rehq s h)) with (core_of s). rewrite H1. cbn [bind].
  change (st_core (rehq s h) c') with (rehq (st_core s c') h). apply send_all_rehq. exact H.
Qed.
Lemma lost_retracting_rehq w l : forall s s' h, lost_retracting s w l = Ok s' -> lost_retracting (rehq s h) w l = Ok (rehq s' h).
Proof.
  induction l as [|id r IH]; cbn [lost_retracting]; intros s s' h H; [inversion H; reflexivity|].
  change (core_of (rehq s h)) with (core_of s).
  destruct (get_task (c_tasks (core_of s)) id) as [t| |]; cbn [bind] in *; try discriminate.
  destruct (t_state t); try (apply IH; exact H). destruct (N.eqb w w0); [|apply IH; exact H].
  destruct (find_redirect (c_redirects (core_of s)) id) as [[tg rv]|].
  - apply bind_ok in H. destruct H as (s1 & H1 & H).
    match type of H1 with send_worker (st_core s ?c) _ _ = _ => change (st_core (rehq s h) c) with (rehq (st_core s c) h) end.
    rewrite (send_worker_rehq _ _ _ _ h H1). cbn [bind]. apply IH. exact H.
  - match type of H with lost_retracting (st_core s ?c) _ _ = _ => change (st_core (rehq s h) c) with (rehq (st_core s c) h) end. apply IH. exact H.
Qed.

Definition notice (m : dmsg) : Prop := match m with DNewWorker _ | DLostWorker _ | DStop => True | _ => False end.
Lemma SP_broadcast_quiet X s m : SP X s no_pum [] -> notice m -> SP X (broadcast s m) no_pum [].
Proof.
  intros [H9 Hcs Hact H1 Hd Ht H3 H4 Hpres Hpum H5 H6 H7 R1 R2] Hnt.
  assert (Hq : quiet m) by (destruct m; try destruct Hnt; exact I).
  set (f := fun p => push_down p m).
  assert (Hf : forall p, p_id (f p) = p_id p) by reflexivity.
  pose proof (fun w q => find_map_proc_inv f (s_procs (fst s)) w q Hf) as Hfp.
  assert (Hit : forall x, ditems_msg x m = []) by (intros x; destruct m; try destruct Hnt; reflexivity).
  assert (Htd : dmsg_tids m = []) by (destruct m; try destruct Hnt; reflexivity).
  constructor; cbn [fst snd core_of hq_of broadcast with_procs s_core s_hq s_procs] in *; try assumption.
  - apply map_proc_sorted; assumption.
  - intros w q x t Hq' Hx HX. destruct (Hfp _ _ Hq') as (p & Hp & ->). unfold f. cbn [push_down p_up p_down].
    specialize (H1 w p x t Hp Hx HX). rewrite msgs_for_nil, !app_nil_r in *. rewrite ditems_app. cbn [ditems flat_map]. rewrite Hit, !app_nil_r.
    change (local (push_down p m) x) with (local p x). exact H1.
  - intros w q Hq'. destruct (Hfp _ _ Hq') as (p & Hp & ->). unfold f. cbn [push_down p_rqs p_down]. rewrite msgs_for_nil, app_nil_r.
    specialize (Hd _ _ Hp). rewrite msgs_for_nil, app_nil_r in Hd. rewrite (down_ok_quiet _ m Hq). exact Hd.
  - intros w q Hq'. destruct (Hfp _ _ Hq') as (p & Hp & ->). unfold f. cbn [push_down p_rqs p_down]. rewrite msgs_for_nil, app_nil_r.
    specialize (Ht _ _ Hp). rewrite msgs_for_nil, app_nil_r in Ht. rewrite (newrq_quiet m _ Hq). exact Ht.
  - intros w q Hq'. destruct (Hfp _ _ Hq') as (p & Hp & ->). destruct (H3 _ _ Hp) as [L1 L2 L3 L4 L5]. constructor; assumption.
  - intros w q x Hq' Hx. destruct (Hfp _ _ Hq') as (p & Hp & ->). apply (H4 w p x Hp). destruct Hx as [Hx|[[]|[]]]. left.
    unfold proc_tids, f in *. cbn [push_down p_up p_down p_backlog p_running] in Hx. rewrite flat_map_app in Hx. cbn [flat_map] in Hx. rewrite Htd, !app_nil_r in Hx. exact Hx.
  - intros w Hw. exfalso. apply Hw. reflexivity.
Qed.

Lemma set_waiting_state_spec s t s' : set_waiting_state s t = Ok s' ->
  core_of s' = core_of s /\ s_procs (fst s') = s_procs (fst s) /\ hq_chg (eq t) (hq_of s) (hq_of s') /\
  (jv (hq_of s) t = Some (Some JR) -> jv (hq_of s') t = Some (Some JW)) /\
  (forall y, jv (hq_of s) y = Some (Some JW) -> jv (hq_of s') y = Some (Some JW)).
Proof.
  unfold set_waiting_state. intros H. apply bind_ok in H. destruct H as (j & Hj & H). destruct (jt_get _ _ _ _ Hj) as [Ej Eid].
  destruct (jt_find (j_tasks j) (snd t)) as [v|] eqn:Ef; [|discriminate].
  assert (Hv : jv (hq_of s) t = Some (Some v)) by (rewrite jv_jt, Ej; cbn; rewrite Ef; reflexivity).
  destruct v; try (inversion H; subst s'; split; [reflexivity|]; split; [reflexivity|]; split; [apply hq_chg_refl|]; split; [rewrite Hv; discriminate | auto]).
  apply bind_ok in H. destruct H as (nr & _ & H). inversion H; subst s'. clear H.
  match goal with |- context [hq_set_job s ?jx] =>
    destruct (set_one_chg s (hq_set_job s jx) t j (jt_set (j_tasks j) (snd t) JW) JW eq_refl Ej) as [A B]; [congruence | reflexivity | |] end.
  - intros id. rewrite jt_set_job. cbn [j_id job_upd j_tasks]. rewrite Eid. reflexivity.
  - split; [reflexivity|]. split; [reflexivity|]. split; [exact A|]. split; [intros _; exact B|].
    intros y Hy. destruct (tid_eqb y t) eqn:E; [apply tid_eqb_eq in E; subst y; exact B|]. destruct A as [_ A]. rewrite (proj1 (A y)); [exact Hy|].
    intros <-. rewrite tid_eqb_refl in E. discriminate.
Qed.

Lemma set_waiting_all_spec ts : forall s s', set_waiting_all s ts = Ok s' ->
  core_of s' = core_of s /\ s_procs (fst s') = s_procs (fst s) /\ hq_chg (fun y => In y ts) (hq_of s) (hq_of s') /\
  (forall y, In y ts -> jactive (jv (hq_of s) y) -> jv (hq_of s') y = Some (Some JW)) /\
  (forall y, jv (hq_of s) y = Some (Some JW) -> jv (hq_of s') y = Some (Some JW)).
Proof.
  induction ts as [|t r IH]; cbn [set_waiting_all]; intros s s' H.
  - inversion H; subst. split; [reflexivity|]. split; [reflexivity|]. split; [apply hq_chg_refl|]. split; [intros y [] | auto].
  - apply bind_ok in H. destruct H as (s1 & H1 & H). destruct (set_waiting_state_spec _ _ _ H1) as (A1 & A2 & A3 & A4 & A5).
    destruct (IH _ _ H) as (B1 & B2 & B3 & B4 & B5). split; [congruence|]. split; [congruence|]. split; [|split].
    + eapply hq_chg_trans; [eapply hq_chg_weaken; [|exact A3] | eapply hq_chg_weaken; [|exact B3]]; cbv beta; [intros y <-; left; reflexivity | intros y Hy; right; exact Hy].
    + intros y [<-|Hy] [Ha|Ha].
      * apply B5. apply A5. exact Ha.
      * apply B5. apply A4. exact Ha.
      * apply B5. apply A5. exact Ha.
      * destruct (tid_eqb y t) eqn:E; [apply tid_eqb_eq in E; subst y; apply B5, A4; exact Ha|].
        apply B4; [exact Hy|]. right. destruct A3 as [_ A3]. rewrite (proj1 (A3 y)); [exact Ha|]. intros <-. rewrite tid_eqb_refl in E. discriminate.
    + intros y Hy. apply B5, A5, Hy.
Qed.

Lemma lost_fail_running_SP l : forall s reason s', SP x0 s no_pum [] -> lost_fail_running s reason l = Ok s' -> SP x0 s' no_pum [].
Proof.
  intros s reason s' HS H.
  refine (lost_fail_running_rel (fun a b : st => SP x0 a no_pum [] -> SP x0 b no_pum []) _ _ _ _ l s reason s' H HS).
  - intros a P. exact P.
  - intros a b c A B P. exact (B (A P)).
  - intros a id t Ef S. destruct (find_task_some _ _ _ Ef) as [_ Eid]. apply (SP_CF x0 x0); [exact S | | auto].
    apply (CF_upd_task _ _ t); [rewrite <- Eid in Ef; exact Ef|]. intros _. cbn. auto.
  - intros a id k b _ Hf S. eapply task_failed_SPX; [|exact Hf]. apply (SP_more_hidden x0); [exact S | intros y Hy; reflexivity].
Qed.

Lemma filter_keep_head w w0 rest : N.eqb w w0 = false -> filter (fun x => negb (N.eqb x w)) (w0 :: rest) = w0 :: filter (fun x => negb (N.eqb x w)) rest.
Proof. intros E. cbn [filter]. rewrite N.eqb_sym, E. reflexivity. Qed.

Theorem lost_PROTO s w reason ao po to s' outs :
  PROTO s -> UH s -> WI (s_core s) -> step s (OpLost w reason ao po to) = Ok (s', outs) -> PROTO s'.
Proof.
  intros HP HU HW H. cbn [step] in H. destruct (find_proc (s_procs s) w) as [pw|] eqn:Hpw; [|discriminate].
  unfold on_remove_worker in H. cbv zeta in H. change (core_of (s, [])) with (s_core s) in H.
  destruct (find_worker (c_workers (s_core s)) w) as [wk|] eqn:Hwk; [|discriminate].
  apply bind_ok in H. destruct H as ([[c2 running] retracted] & Hr & H).
  destruct (negb (perm_of_set to (map t_id (c_tasks c2)))); [discriminate|].
  apply bind_ok in H. destruct H as (s3 & H3 & H). apply bind_ok in H. destruct H as (s4 & H4 & H).
  apply bind_ok in H. destruct H as (s6 & H6 & H). apply bind_ok in H. destruct H as (s7 & H7 & H). inversion H; subst s' outs. clear H.
  destruct HU as [Hcs Hpa]. pose proof (SP_init s [] HP Hcs Hpa) as S.
  set (s0 := (with_procs (fst (s, @nil out)) (del_proc (s_procs (fst (s, @nil out))) w), snd (s, @nil out))) in *.
  pose proof (SP_del_proc x0 (s, []) w S) as S0. fold s0 in S0.
  assert (Hn0 : find_proc (s_procs (fst s0)) w = None).
  { cbn [s0 fst with_procs s_procs]. rewrite (find_del_proc _ _ _ (pr_sorted _ HP)), N.eqb_refl. reflexivity. }
  set (c0 := with_workers (s_core s) (del_worker (c_workers (s_core s)) w)) in *.
  assert (Sc0 : SP x0 (st_core s0 c0) no_pum []) by (apply (SP_CF x0 x0); [exact S0 | apply CF_tasks_same; auto | auto]).
  (* phase 1 *)
  assert (P1 : SP (Xr running x0) (st_core s0 c2) no_pum [] /\
               (forall y, In y running -> exists t2, find_task (c_tasks c2) y = Some t2 /\ t_state t2 = Waiting 0) /\
               (forall y, In y running -> silent s0 y /\ jactive (jv (s_hq s) y))).
  { destruct (w_assign wk) as [a p f|mt root] eqn:Ea.
    - destruct (negb (perm_of_set ao a && perm_of_set po p)) eqn:Eperm; [discriminate|]. apply negb_false_iff, andb_true_iff in Eperm. destruct Eperm as [Pa Pp].
      pose proof HW as HW'. destruct HW as (Hsw & Hsr & Hv & Hb). destruct (wi_sets _ _ _ Hv w wk a p f Hwk Ea) as [Sa Spp].
      destruct (perm_of_set_spec _ _ Pa Sa) as [Nda Ma]. destruct (perm_of_set_spec _ _ Pp Spp) as [Ndp Mp].
      apply bind_ok in Hr. destruct Hr as (c1 & Hlp & Hla).
      destruct (lost_prefilled_SP x0 s0 w po c0 c1 Sc0 Hn0 Ndp) as [S1 F1]; [| exact Hlp |].
      { intros id t Hin Hf. pose proof (WI_member_P _ _ _ _ _ _ id t HW' Hwk Ea (proj1 (Mp id) Hin) Hf) as Hpl.
        destruct (t_state t); cbn [pl] in Hpl; try discriminate. inversion Hpl. reflexivity. }
      assert (Hst_a : forall id t, In id ao -> find_task (c_tasks (s_core s)) id = Some t ->
                 match t_state t with Assigned w1 _ | Running w1 _ => w1 = w | Retracting _ => True | _ => False end).
      { intros id t Hin Hf. destruct (WI_member_A _ _ _ _ _ _ id t HW' Hwk Ea (proj1 (Ma id) Hin) Hf) as [Hpl|[Hpl _]];
          destruct (t_state t); cbn [pl] in Hpl; try discriminate; try exact I; inversion Hpl; reflexivity. }
      assert (Hnotp : forall id, In id ao -> ~ In id po).
      { intros id Hin Hin2. destruct (find_task (c_tasks (s_core s)) id) as [t|] eqn:Hf.
        - pose proof (Hst_a id t Hin Hf) as X1. pose proof (WI_member_P _ _ _ _ _ _ id t HW' Hwk Ea (proj1 (Mp id) Hin2) Hf) as X2.
          destruct (t_state t); cbn [pl] in X2; try discriminate; exact X1.
        - destruct (WI_absent_member _ _ _ _ _ _ id HW' Hwk Ea Hf) as [X1 _]. rewrite (proj1 (Ma id) Hin) in X1. discriminate. }
      destruct (lost_assigned_SP s0 w ao x0 c1 [] [] c2 running retracted) as (S2 & R2 & O2 & _); [| exact Hn0 | exact Nda | auto | | intros y [] | exact Hla |].
      { eapply SP_Xext; [exact S1 | intros y; reflexivity]. }
      { intros id t Hin Hf. rewrite (F1 id (Hnotp id Hin)) in Hf. apply (Hst_a id t Hin Hf). }
      split; [exact S2|]. split; [exact R2|]. intros y Hy. destruct (O2 y Hy) as [[]|(Hin & t & w1 & rv1 & Hf & Est)].
      rewrite (F1 y (Hnotp y Hin)) in Hf. change (c_tasks c0) with (c_tasks (s_core s)) in Hf.
      pose proof (Hst_a y t Hin Hf) as Hw1. rewrite Est in Hw1. subst w1. split.
      + apply (silent_of_SP x0 s0 y t w S0 Hf eq_refl Hn0). rewrite Est. reflexivity.
      + exact (proj2 (Hpa y t Hf)).
    - apply bind_ok in Hr. destruct Hr as (t & Ht & Hr). unfold get_task in Ht. change (c_tasks c0) with (c_tasks (s_core s)) in Ht.
      destruct (find_task (c_tasks (s_core s)) mt) as [t0|] eqn:Hf; [|discriminate]. inversion Ht; subst t0. clear Ht.
      destruct (find_task_some _ _ _ Hf) as [_ Eid].
      destruct (t_state t) as [n|w1 rv1|w1|w1|w1 rv1|ws|] eqn:Est; try discriminate. destruct ws as [|w0 rest]; [discriminate|].
      destruct (N.eqb w w0) eqn:Ew.
      + apply N.eqb_eq in Ew. subst w0. apply bind_ok in Hr. destruct Hr as (c1 & Hrs & Hr). apply bind_ok in Hr. destruct Hr as ([qs ret] & _ & Hr).
        inversion Hr; subst c2 running retracted. clear Hr.
        set (t2 := with_inst (with_state t (Waiting 0)) (t_inst t + 1)) in *.
        assert (Et1 : c_tasks c1 = c_tasks (s_core s)) by (rewrite (BijReact.reset_mn_all_tasks _ _ _ Hrs); reflexivity).
        assert (S1 : SP x0 (st_core s0 c1) no_pum []).
        { apply (SP_ext x0 (st_core (st_core s0 c0) c1)); [|reflexivity|reflexivity|reflexivity]. apply (SP_CF x0 x0); [exact Sc0 | eapply reset_mn_all_CF; exact Hrs | auto]. }
        assert (Hf1 : find_task (c_tasks (core_of (st_core s0 c1))) mt = Some t) by (cbn [core_of st_core with_core s_core fst]; rewrite Et1; exact Hf).
        pose proof (SP_upd_hide x0 (st_core s0 c1) mt t t2 S1 Hf1 Eid) as S2.
        split; [|split].
        * apply (SP_with_queues (Xr [mt] x0) s0 (upd_task c1 t2) qs). apply (SP_Xext (xadd x0 mt)); [exact S2|].
          intros y. unfold Xr, xadd. cbn [tid_mem]. rewrite orb_false_r. reflexivity.
        * intros y [<-|[]]. exists t2. split; [|reflexivity]. cbn [with_queues c_tasks]. rewrite find_upd_task. cbn [t2 with_inst with_state t_id]. rewrite Eid, tid_eqb_refl. reflexivity.
        * intros y [<-|[]]. split; [|exact (proj2 (Hpa mt t Hf))]. apply (silent_of_SP x0 s0 mt t w S0 Hf eq_refl Hn0). rewrite Est. reflexivity.
      + inversion Hr; subst c2 running retracted. clear Hr. split; [|split; intros y []].
        apply (SP_Xext x0); [|intros y; reflexivity].
        apply (SP_upd_view x0 (st_core s0 c0) mt t _ Sc0 Hf); [cbn; exact Eid|]. intros _. split; [|split; [|split]].
        * intros w' p jr Hp. cbn [with_state t_state filter]. rewrite (N.eqb_sym w0 w), Ew. cbn [negb view_of]. rewrite Est. reflexivity.
        * pose proof (sp_mnt _ _ _ _ Sc0 _ _ Hf eq_refl) as M. unfold mn_task_ok in *. rewrite Est in M. cbn [with_state t_state t_rq]. exact M.
        * reflexivity.
        * intros w1 rv1 E. cbn in E. discriminate. }
  destruct P1 as (S2 & R2 & Q2).
  (* the job layer after the loss has been recorded *)
  unfold process_worker_lost in H6. apply bind_ok in H6. destruct H6 as (s6' & H6 & E6). inversion E6; subst s6. clear E6.
  destruct (set_waiting_all_spec _ _ _ H6) as (Ec6 & Ep6 & Hchg & Hval & _).
  assert (Eh5 : hq_of (broadcast s4 (DLostWorker w)) = s_hq s).
  { change (hq_of (broadcast s4 (DLostWorker w))) with (hq_of s4). rewrite (process_retracted_hq _ _ _ H4), (lost_retracting_same _ _ _ _ H3). reflexivity. }
  rewrite Eh5 in Hchg, Hval. set (h6 := hq_of s6') in *.
  assert (Sv2 : SP x0 (rehq (st_core s0 c2) h6) no_pum []).
  { assert (Sh : SP (Xr running x0) (rehq (st_core s0 c2) h6) no_pum []).
    { apply (SP_hq_chg (Xr running x0) (fun y => In y running) (st_core s0 c2) no_pum [] (rehq (st_core s0 c2) h6) S2); [reflexivity | reflexivity | exact Hchg|].
      intros y t Hy HX Hin. unfold Xr in HX. apply orb_false_iff in HX. destruct HX as [HX _]. apply tid_mem_In in Hin. congruence. }
    apply (SP_ext x0 (mkSys (core_of (rehq (st_core s0 c2) h6)) (hq_of (rehq (st_core s0 c2) h6)) (s_procs (fst (rehq (st_core s0 c2) h6))), snd (rehq (st_core s0 c2) h6)));
      [|reflexivity|reflexivity|reflexivity].
    apply (SP_gen (Xr running x0) (Xr running x0) x0 _ no_pum [] _ _ _ no_pum [] Sh (sp_cs _ _ _ _ Sh) eq_refl (sp_rvr _ _ _ _ Sh)).
    - intros y t' E Hy _. exists t'. repeat split; assumption.
    - intros w' y _. split; reflexivity.
    - auto.
    - intros y t' Hy. congruence.
    - intros w' p y Hp [[]|[]].
    - intros w' p Hp. split; [exact (sp_down _ _ _ _ Sh _ _ Hp) | reflexivity].
    - auto.
    - intros y t' E Hy _. unfold Xr in E. rewrite orb_false_r in E. apply tid_mem_In in E.
      destruct (R2 y E) as (t2 & Hf2 & Est2). change (core_of (rehq (st_core s0 c2) h6)) with c2 in Hy. rewrite Hf2 in Hy. inversion Hy; subst t'. clear Hy.
      destruct (Q2 y E) as [Hsil Hja]. pose proof (Hval y E Hja) as Hjw. change (hq_of (rehq (st_core s0 c2) h6)) with h6.
      split; [left; exact Hjw|]. split; [unfold mn_task_ok; rewrite Est2; reflexivity|]. split; [|split].
      + unfold jr_ok. rewrite Est2. rewrite (proj2 (find_task_some _ _ _ Hf2)), job_running_jv, Hjw. reflexivity.
      + intros w1 rv1 E1. rewrite Est2 in E1. discriminate.
      + intros w' p Hp. rewrite Est2. cbn [view_of no_pum app]. rewrite msgs_for_nil, app_nil_r.
        destruct (Hsil w' p Hp) as (A & B & C). rewrite A, B, C. reflexivity. }
  (* the sends, on the state with the final job layer *)
  pose proof (lost_retracting_rehq _ _ _ _ h6 H3) as H3v. change (rehq (st_core s0 c2) h6) with (rehq (st_core s0 c2) h6) in H3v.
  destruct (lost_retracting_SP w to _ _ Sv2 Hn0 H3v) as [Sv3 _].
  pose proof (process_retracted_SP _ _ _ _ _ Sv3 (process_retracted_rehq _ _ _ h6 H4)) as Sv4.
  pose proof (SP_broadcast_quiet x0 _ (DLostWorker w) Sv4 I) as Sv5.
  assert (S6 : SP x0 (emit s6' (OEv (EvWLost w reason))) no_pum []).
  { eapply SP_ext; [exact Sv5 | exact Ec6 | reflexivity | exact Ep6]. }
  change (fst (ask_scheduling s7)) with (fst (ask_scheduling s7)).
  apply (SP_final (ask_scheduling s7)). apply SP_ask. eapply lost_fail_running_SP; [exact S6 | exact H7].
Qed.
