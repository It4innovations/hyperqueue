(** C02 bijection, part 5: the reactor keeps core and job layer in step.
    [CB s]: the core's task map is sorted, consumers stay within their job, and the core knows
    exactly the tasks the job layer shows as waiting or running. *)
From HQ Require Import Base.Prelude Cluster.Types Cluster.Core Cluster.Reactor Cluster.Worker Cluster.Server Cluster.Sys Cluster.ProofsJob Cluster.ProofsMore Cluster.ProofsTerminal Cluster.ProofsStep Cluster.BijBase Cluster.BijCore Cluster.BijHq Cluster.BijSt.
From HQ Require Import Cluster.ModelFacts.
From Coq Require Import ZArith Lia Sorting.Sorted.
From HQ Require Import Cluster.RejHyp Cluster.StepShape.
Local Open Scope N_scope.

Arguments N.add : simpl never.
Arguments N.sub : simpl never.

Record CB (s : st) : Prop := mkCB { cb_s : CS (core_of s); cb_d : KD (K s); cb_b : forall t, present (K s) t <-> active s t }.

Lemma CB_frame s s' : K s' = K s -> (forall x, active s' x <-> active s x) -> CB s -> CB s'.
Proof.
  intros E A [S D B]. constructor.
  - eapply CS_keys; [exact E | exact S].
  - rewrite E. exact D.
  - intros t. rewrite E, A. apply B.
Qed.

Lemma CB_same s s' : K s' = K s -> hq_of s' = hq_of s -> CB s -> CB s'.
Proof. intros E H. apply CB_frame; [exact E|]. apply active_same. apply jt_same. exact H. Qed.

Lemma CB_remove s s' X Y :
  shrinks (K s) (K s') X -> (forall x, active s' x <-> active s x /\ ~ In x Y) ->
  (forall x, present (K s) x -> (In x X <-> In x Y)) -> CB s -> CB s'.
Proof.
  intros Sh A XY [S D B]. constructor.
  - exact (shr_sorted _ _ _ Sh).
  - eapply shrinks_KD; [exact Sh | exact D].
  - intros t. rewrite (shr_dom _ _ _ Sh), A, <- B. split; intros [P N]; (split; [exact P|]); rewrite (XY t P) in *; exact N.
Qed.

Lemma reset_mn_workers_tasks ws : forall c id c', reset_mn_workers c ws id = Ok c' -> c_tasks c' = c_tasks c.
Proof.
  induction ws as [|w r IH]; cbn [reset_mn_workers]; intros c id c' H; [inversion H; reflexivity|].
  apply bind_ok in H. destruct H as (wk & _ & H). destruct (w_assign wk); [discriminate|].
  destruct (tid_eqb t id); [|discriminate]. rewrite (IH _ _ _ H). reflexivity.
Qed.

Lemma reset_mn_all_tasks ws : forall c c', reset_mn_all c ws = Ok c' -> c_tasks c' = c_tasks c.
Proof.
  induction ws as [|w r IH]; cbn [reset_mn_all]; intros c c' H; [inversion H; reflexivity|].
  apply bind_ok in H. destruct H as (wk & _ & H). rewrite (IH _ _ H). reflexivity.
Qed.

Lemma task_finished_CB s w id s' b : CB s -> task_finished s w id = Ok (s', b) -> CB s'.
Proof.
  intros HC H. unfold task_finished in H.
  destruct (find_task (c_tasks (core_of s)) id) as [t|] eqn:Ef; [|inversion H; subst; exact HC].
  apply bind_ok in H. destruct H as (rq & _ & H). apply bind_ok in H. destruct H as (c1 & H1 & H).
  assert (Et : c_tasks c1 = c_tasks (core_of s)).
  { destruct (t_state t); try discriminate.
    - destruct (negb (N.eqb w0 w)); [discriminate|]. inv_binds H1. inversion H1; reflexivity.
    - destruct (negb (N.eqb w0 w)); [discriminate|]. eapply try_remove_redirection_tasks; exact H1.
    - destruct (negb (N.eqb w0 w)); [discriminate|]. inv_binds H1. inversion H1; reflexivity.
    - destruct ws; [discriminate|]. destruct (N.eqb w0 w); [|discriminate]. eapply reset_mn_workers_tasks; exact H1. }
  assert (Ek : keys c1 = K s) by (unfold K, keys; rewrite Et; reflexivity).
  assert (Hs1 : CS c1) by (eapply CS_keys; [exact Ek | exact (cb_s _ HC)]).
  cbv zeta in H.
  assert (E2 : keys (upd_task c1 (with_state t Finished)) = K s).
  { rewrite <- Ek. apply (upd_task_frame c1 id t); [exact Hs1 | rewrite Et; exact Ef | reflexivity | reflexivity]. }
  apply bind_ok in H. destruct H as (s1 & Hf & H).
  destruct (process_task_finished_active _ _ _ Hf) as [C1 A1].
  apply bind_ok in H. destruct H as ([c3 retracted] & Hw & H).
  apply bind_ok in H. destruct H as (s2 & Hr & H).
  apply bind_ok in H. destruct H as ([c4 stt] & Hrm & H).
  destruct stt; try discriminate. inversion H; subst.
  assert (Ks1 : K s1 = K s) by (unfold K; rewrite C1; exact E2).
  assert (Hss1 : CS (core_of s1)) by (eapply CS_keys; [exact Ks1 | exact (cb_s _ HC)]).
  pose proof (wake_consumers_frame _ _ _ _ _ Hss1 Hw) as E3.
  assert (Ks2 : K s2 = K s).
  { rewrite (process_retracted_K (st_core s1 c3) _ _ (CS_keys _ _ E3 Hss1) Hr). unfold K in *. change (keys c3 = keys (core_of s)). rewrite E3. exact Ks1. }
  assert (Hss2 : CS (core_of s2)) by (eapply CS_keys; [exact Ks2 | exact (cb_s _ HC)]).
  destruct (remove_task_shrinks _ _ _ _ Hss2 Hrm) as [Sh _].
  pose proof (process_retracted_hq _ _ _ Hr) as Hq.
  eapply (CB_remove s _ [id] [id]); [| | tauto | exact HC].
  - change (shrinks (K s) (keys c4) [id]). rewrite <- Ks2. exact Sh.
  - intros x. rewrite (active_same s1 (st_core s2 c4)) by (apply jt_same; exact Hq).
    rewrite A1. rewrite (active_same s (st_core s (upd_task c1 (with_state t Finished)))) by (intros; reflexivity).
    cbn [In]. split; [intros [A N]; split; [exact A | intros [E|[]]; congruence] | intros [A N]; split; [exact A | intros E; apply N; left; congruence]].
Qed.

Lemma ptf_mid s t aborted s1 j j1 ev s2 :
  HOK (hq_of s) -> abort_tasks s (fst t) aborted = Ok s1 -> hq_get_job s1 (fst t) 207 = Ok j ->
  set_failed j (snd t) = Ok j1 ->
  check_termination (emit (hq_set_job s1 j1) ev) (fst t) = Ok s2 -> HOK (hq_of s2).
Proof.
  intros H H1 Hj Hj1 H2.
  pose proof (abort_tasks_ok _ _ _ _ H H1) as Hk1.
  eapply check_termination_ok; [|exact H2]. rewrite emit_hq. apply hq_set_job_ok; [exact Hk1|].
  exact (set_failed_ok _ _ _ (hq_get_job_ok _ _ _ _ Hk1 Hj) Hj1).
Qed.

Lemma process_task_failed_active s t aborted k s' ids :
  HOK (hq_of s) -> process_task_failed s t aborted k = Ok (s', ids) ->
  core_same s s' /\
  (forall x, active s' x <-> active s x /\ ~ In x aborted /\ x <> t /\ ~ In x ids) /\
  (forall x, In x ids -> fst x = fst t) /\
  (ids <> [] -> forall x, fst x = fst t -> active s x -> ~ In x aborted -> x <> t -> In x ids).
Proof.
  intros H Hc. unfold process_task_failed in Hc.
  apply bind_ok in Hc. destruct Hc as (s1 & H1 & Hc).
  destruct (abort_tasks_active _ _ _ _ H1) as [C1 A1].
  apply bind_ok in Hc. destruct Hc as (j & Hj & Hc).
  apply bind_ok in Hc. destruct Hc as (j1 & Hj1 & Hc).
  apply bind_ok in Hc. destruct Hc as (s2 & H2 & Hc).
  pose proof (ptf_mid _ _ _ _ _ _ _ _ H H1 Hj Hj1 H2) as Hk2.
  destruct (check_termination_jt _ _ _ H2) as [C2 J2].
  destruct (jt_get _ _ _ _ Hj) as [Ej Eid].
  (* the failed task itself *)
  assert (A2 : forall x, active s2 x <-> active s1 x /\ x <> t).
  { destruct (jt_find (j_tasks j) (snd t)) as [v|] eqn:Ef; [|discriminate].
    assert (Hj1' : j_id j1 = j_id j /\ j_tasks j1 = jt_set (j_tasks j) (snd t) JX).
    { destruct v; try discriminate; [|apply bind_ok in Hj1; destruct Hj1 as (nr & _ & Hj1)]; inversion Hj1; subst; split; reflexivity. }
    destruct Hj1' as [I1 T1].
    eapply (active_removed_one s1 s2 t _ v JX Ej Ef not_active_X).
    intros id. rewrite J2, jt_emit, jt_set_job, I1, Eid, T1. reflexivity. }
  assert (C12 : core_of s2 = core_of s) by (unfold core_same in *; rewrite C2; cbn; exact C1).
  apply bind_ok in Hc. destruct Hc as (j2 & Hj2 & Hc).
  destruct (jt_get _ _ _ _ Hj2) as [Ej2 Eid2].
  assert (Hnone : s' = s2 -> ids = [] ->
          core_same s s' /\ (forall x, active s' x <-> active s x /\ ~ In x aborted /\ x <> t /\ ~ In x ids) /\
          (forall x, In x ids -> fst x = fst t) /\
          (ids <> [] -> forall x, fst x = fst t -> active s x -> ~ In x aborted -> x <> t -> In x ids)).
  { intros -> ->. split; [exact C12|]. split; [|split; [intros x []|congruence]].
    intros x. rewrite A2, A1. cbn. tauto. }
  destruct (j_maxfails j2) as [mf|]; [|inversion Hc; subst; apply Hnone; reflexivity].
  destruct (N.ltb mf (j_nfail j2)); [|inversion Hc; subst; apply Hnone; reflexivity].
  apply bind_ok in Hc. destruct Hc as (s3 & H3 & Hc). inversion Hc; subst. clear Hnone.
  destruct (abort_tasks_active _ _ _ _ H3) as [C3 A3].
  assert (Hs2 : jsorted (j_tasks j2)).
  { apply jok_sorted. apply Hk2. eapply find_job_in. unfold hq_get_job in Hj2.
    destruct (find_job (h_jobs (s_hq (fst s2))) (fst t)) eqn:E; [|discriminate]. inversion Hj2; subst. exact E. }
  assert (Hin : forall x, In x (non_finished_task_ids j2) <-> fst x = fst t /\ active s2 x).
  { intros x. rewrite (non_finished_in _ _ Hs2), Eid2. split.
    - intros [Hf Ha]. split; [exact Hf|]. exists (j_tasks j2). rewrite Hf. auto.
    - intros [Hf (l & Hl & Ha)]. split; [exact Hf|]. rewrite Hf, Ej2 in Hl. inversion Hl; subst. exact Ha. }
  split; [unfold core_same in *; rewrite C3; exact C12|]. split; [|split].
  - intros x. rewrite A3, A2, A1. tauto.
  - intros x Hx. apply Hin in Hx. apply Hx.
  - intros _ x Hf Ha Hn Hne. apply Hin. split; [exact Hf|]. apply A2. split; [|exact Hne]. apply A1. auto.
Qed.

Lemma task_failed_CB s w id k s' : HOK (hq_of s) -> CB s -> task_failed s w id k = Ok s' -> CB s'.
Proof.
  intros Hok HC H. unfold task_failed in H.
  destruct (find_task (c_tasks (core_of s)) id) as [t|] eqn:Ef; [|inversion H; subst; exact HC].
  destruct (find_task_some _ _ _ Ef) as [Hin Hid]. apply tid_eqb_eq in Hid.
  apply bind_ok in H. destruct H as (rq & _ & H). apply bind_ok in H. destruct H as (c1 & H1 & H).
  assert (Et : c_tasks c1 = c_tasks (core_of s)).
  { destruct w as [wkr|].
    - destruct (rq_is_mn rq).
      + destruct (t_state t); try discriminate. destruct ws as [|w0 ws]; [discriminate|].
        destruct (N.eqb w0 wkr); [|discriminate]. eapply reset_mn_workers_tasks; exact H1.
      + destruct (t_state t); try (inversion H1; reflexivity).
        * destruct (negb (N.eqb wkr w)); [discriminate|]. inv_binds H1. inversion H1; reflexivity.
        * destruct (negb (N.eqb wkr w)); [discriminate|]. inv_binds H1. inversion H1; reflexivity.
        * destruct (negb (N.eqb wkr w)); [discriminate|]. eapply try_remove_redirection_tasks; exact H1.
        * destruct (negb (N.eqb wkr w)); [discriminate|]. inv_binds H1. inversion H1; reflexivity.
    - destruct (is_waiting t); inversion H1; reflexivity. }
  assert (Ek : keys c1 = K s) by (unfold K, keys; rewrite Et; reflexivity).
  assert (Hs1 : CS c1) by (eapply CS_keys; [exact Ek | exact (cb_s _ HC)]).
  apply bind_ok in H. destruct H as (csm & Hcs & H).
  assert (Hjob : forall x, In x csm -> fst x = fst id).
  { rewrite <- (proj1 (tid_eqb_eq _ _) Hid). eapply recursive_consumers_job; [| |exact Hcs].
    - change (KD (keys c1)). rewrite Ek. exact (cb_d _ HC).
    - rewrite Et. exact Hin. }
  apply bind_ok in H. destruct H as (c2 & H2 & H).
  destruct (remove_waiting_consumers_shrinks _ _ _ Hs1 H2) as [Sh2 _].
  apply bind_ok in H. destruct H as ([c3 stt] & H3 & H).
  destruct (remove_task_shrinks _ _ _ _ (shr_sorted _ _ _ Sh2) H3) as [Sh3 _].
  apply bind_ok in H. destruct H as (u & _ & H).
  apply bind_ok in H. destruct H as ([s1 cancel_ids] & H4 & H).
  pose proof (shrinks_trans _ _ _ _ _ Sh2 Sh3) as Sh23. rewrite Ek in Sh23.
  destruct (process_task_failed_active (st_core s c3) id csm k s1 cancel_ids Hok H4) as (C4 & A4 & J4 & N4).
  assert (Ks1 : K s1 = keys c3) by (unfold K; rewrite C4; reflexivity).
  assert (A4' : forall x, active s1 x <-> active s x /\ ~ In x (csm ++ [id] ++ cancel_ids)).
  { intros x. rewrite A4. rewrite (active_same s (st_core s c3)) by (intros; reflexivity).
    rewrite !in_app_iff. cbn [In]. split.
    - intros (A & N1 & N2 & N3). split; [exact A|]. intros [X|[[X|[]]|X]]; auto.
    - intros (A & N). split; [exact A|]. split; [auto|]. split; [intros X; apply N; right; left; left; auto | auto]. }
  destruct cancel_ids as [|c0 cr] eqn:Ecid.
  - inversion H; subst. eapply (CB_remove s s' (csm ++ [id]) (csm ++ [id] ++ [])); [rewrite Ks1; exact Sh23 | exact A4' | | exact HC].
    intros x _. rewrite app_nil_r. reflexivity.
  - rewrite <- Ecid in *. clear Ecid.
    assert (Hs3 : CS (core_of s1)) by (unfold CS; fold (K s1); rewrite Ks1; exact (shr_sorted _ _ _ Sh23)).
    assert (Hd3 : KD (K s1)) by (rewrite Ks1; eapply shrinks_KD; [exact Sh23 | exact (cb_d _ HC)]).
    destruct (on_cancel_tasks_spec _ _ _ Hs3 Hd3 H) as (X & ShX & X1 & X2).
    pose proof (on_cancel_tasks_hq _ _ _ H) as Hq.
    rewrite Ks1 in ShX. pose proof (shrinks_trans _ _ _ _ _ Sh23 ShX) as ShAll.
    eapply (CB_remove s s' ((csm ++ [id]) ++ X) (csm ++ [id] ++ cancel_ids)); [exact ShAll | | | exact HC].
    + intros x. rewrite (active_same s1 s') by (apply jt_same; exact Hq). apply A4'.
    + intros x Hp. rewrite !in_app_iff. cbn [In].
      assert (Hcore : ~ In x csm -> x <> id -> (In x X <-> In x cancel_ids)).
      { intros Nc Ni. split.
        - intros Hx. destruct (X2 _ Hx) as (_ & y & Hy & _ & Hf).
          apply N4; [intros E; rewrite E in Hy; destruct Hy | rewrite Hf; apply J4; exact Hy | | exact Nc | exact Ni].
          rewrite (active_same s (st_core s c3)) by (intros; reflexivity). apply (cb_b _ HC). exact Hp.
        - intros Hx. apply X1; [exact Hx|]. rewrite Ks1. apply (shr_dom _ _ _ Sh23). split; [exact Hp|].
          rewrite in_app_iff. cbn [In]. intros [E|[E|[]]]; [auto | apply Ni; auto]. }
      split.
      * intros [[Hx|[Hx|[]]]|Hx]; [left; exact Hx | right; left; left; exact Hx|].
        destruct (in_dec tid_dec x csm) as [Ic|Nc]; [left; exact Ic|].
        destruct (tid_eqb x id) eqn:Ei; [apply tid_eqb_eq in Ei; right; left; left; auto|].
        apply tid_eqb_neq in Ei. right. right. apply Hcore; assumption.
      * intros [Hx|[[Hx|[]]|Hx]]; [left; left; exact Hx | left; right; left; exact Hx|].
        destruct (in_dec tid_dec x csm) as [Ic|Nc]; [left; left; exact Ic|].
        destruct (tid_eqb x id) eqn:Ei; [apply tid_eqb_eq in Ei; left; right; left; auto|].
        apply tid_eqb_neq in Ei. right. apply Hcore; assumption.
Qed.

Lemma request_enabled_K s w rq rv s' : request_enabled s w rq rv = Ok s' -> K s' = K s.
Proof. unfold request_enabled. intros H. inv_binds H. inversion H; subst. reflexivity. Qed.

(** [CB] together with the job-layer invariant some of its steps need, as a relation across a piece of
    execution: reflexive and transitive, the form the closure lemmas of [StepShape] take. *)
Definition CBR (s s' : st) : Prop := HOK (hq_of s) -> CB s -> HOK (hq_of s') /\ CB s'.
Lemma CBR_refl s : CBR s s.
Proof. intros A B. split; assumption. Qed.
Lemma CBR_trans a b c : CBR a b -> CBR b c -> CBR a c.
Proof. intros A B H1 H2. destruct (A H1 H2) as [H3 H4]. exact (B H3 H4). Qed.
Lemma CBR_same s s' : (CS (core_of s) -> K s' = K s) -> hq_of s' = hq_of s -> CBR s s'.
Proof. intros Ek Eq Hok HC. split; [rewrite Eq; exact Hok | exact (CB_same _ _ (Ek (cb_s _ HC)) Eq HC)]. Qed.

Lemma apply_one_CB s w u s' n : apply_one s w u = Ok (s', n) -> CBR s s'.
Proof.
  apply (apply_one_walk CBR).
  - intros x w0 id x' b X Hok HC. split; [exact (task_finished_ok _ _ _ _ _ Hok X) | exact (task_finished_CB _ _ _ _ _ HC X)].
  - intros x w0 id k x' X Hok HC. split; [exact (task_failed_ok _ _ _ _ _ Hok X) | exact (task_failed_CB _ _ _ _ _ Hok HC X)].
  - intros x w0 id rv x' b X Hok HC. split; [exact (task_running_ok _ _ _ _ _ _ Hok X)|].
    destruct (task_running_spec _ _ _ _ _ _ (cb_s _ HC) X) as [E A]. exact (CB_frame _ _ E A HC).
  - intros x w0 id rv x' b X. apply CBR_same; [intros Hs; exact (task_reject_K _ _ _ _ _ _ Hs X) | exact (task_reject_same _ _ _ _ _ _ X)].
  - intros x w0 rq rv x' X. apply CBR_same; [intros _; exact (request_enabled_K _ _ _ _ _ X) | exact (request_enabled_same _ _ _ _ _ X)].
Qed.

Lemma apply_updates_CB us : forall s w need s' need',
  HOK (hq_of s) -> CB s -> apply_updates s w us need = Ok (s', need') -> CB s'.
Proof.
  intros s w need s' need' Hok HC H.
  exact (proj2 (apply_updates_rel CBR CBR_refl CBR_trans apply_one_CB us s w need s' need' H Hok HC)).
Qed.

Lemma on_task_update_CB s w us s' : HOK (hq_of s) -> CB s -> on_task_update s w us = Ok s' -> CB s'.
Proof.
  intros Hok HC H. refine (proj2 (on_task_update_rel CBR CBR_refl CBR_trans apply_one_CB s w us s' _ H Hok HC)).
  intros x. apply CBR_same; [intros _|]; reflexivity.
Qed.

Lemma lost_fail_running_CB l : forall s reason s',
  HOK (hq_of s) -> CB s -> lost_fail_running s reason l = Ok s' -> CB s'.
Proof.
  intros s reason s' Hok HC H.
  refine (proj2 (lost_fail_running_rel CBR CBR_refl CBR_trans _ _ l s reason s' H Hok HC)).
  - intros s0 id t Ef. apply CBR_same; [|reflexivity]. intros Hs.
    exact (upd_task_frame (core_of s0) id t (with_crash t (t_crash t + 1)) Hs Ef eq_refl eq_refl).
  - intros s0 id k s1 _ Hf Hok0 HC0. split; [eapply task_failed_ok; eassumption | eapply task_failed_CB; eassumption].
Qed.

(** The lost worker's own tasks change state and instance only. *)
Lemma lost_sets_keys c0 w wk ao po c2 running retracted :
  CS c0 -> lost_sets c0 w wk ao po = Ok (c2, running, retracted) -> keys c2 = keys c0.
Proof.
  intros Hs0 Hr. unfold lost_sets in Hr. destruct (w_assign wk).
  - destruct (negb _); [discriminate|]. apply bind_ok in Hr. destruct Hr as (c1 & Hp & Hr).
    pose proof (lost_prefilled_frame _ _ _ Hs0 Hp) as E1.
    rewrite (lost_assigned_frame _ _ _ _ _ _ _ (CS_keys _ _ E1 Hs0) Hr). exact E1.
  - apply bind_ok in Hr. destruct Hr as (tk & Ht & Hr).
    destruct (t_state tk); try discriminate. destruct ws as [|w0 rest]; [discriminate|].
    destruct (N.eqb w w0).
    + apply bind_ok in Hr. destruct Hr as (c1 & Hc1 & Hr). apply bind_ok in Hr. destruct Hr as ([qs ret] & _ & Hr).
      inversion Hr; subst.
      pose proof (reset_mn_all_frame _ _ _ Hc1) as E1.
      pose proof (reset_mn_all_tasks _ _ _ Hc1) as T1.
      change (keys (upd_task c1 (with_inst (with_state tk (Waiting 0)) (t_inst tk + 1))) = keys c0).
      transitivity (keys c1); [|exact E1].
      apply (upd_task_frame c1 t tk); [eapply CS_keys; [exact E1 | exact Hs0] | rewrite T1; apply get_task_find; exact Ht | reflexivity | reflexivity].
    + inversion Hr; subst.
      apply (upd_task_frame c0 t tk); [exact Hs0 | apply get_task_find; exact Ht | reflexivity | reflexivity].
Qed.

Lemma on_remove_worker_CB s w reason a p t s' :
  HOK (hq_of s) -> CB s -> on_remove_worker s w reason a p t = Ok s' -> CB s'.
Proof.
  intros Hok HC H.
  refine (proj2 (on_remove_worker_rel CBR CBR_trans _ _ _ _ _ _ _ s w reason a p t s' H Hok HC)).
  - intros s0 w0 wk ao po c2 running retracted _ Hr. apply CBR_same; [|reflexivity].
    intros Hs. exact (lost_sets_keys (with_workers (core_of s0) (del_worker (c_workers (core_of s0)) w0)) _ _ _ _ _ _ _ Hs Hr).
  - intros l s0 w0 s1 X. apply CBR_same; [intros Hs; exact (lost_retracting_K _ _ _ _ Hs X) | exact (lost_retracting_same _ _ _ _ X)].
  - intros s0 r s1 X. apply CBR_same; [intros Hs; exact (process_retracted_K _ _ _ Hs X) | exact (process_retracted_hq _ _ _ X)].
  - intros s0 w0. apply CBR_same; [intros _|]; reflexivity.
  - intros s0 w0 running r s1 X Hok0 HC0. destruct (process_worker_lost_active _ _ _ _ _ X) as [C6 A6].
    split; [exact (process_worker_lost_ok _ _ _ _ _ Hok0 X) | eapply CB_frame; [unfold K; rewrite C6; reflexivity | exact A6 | exact HC0]].
  - intros l s0 r s1 X Hok0 HC0. split; [exact (lost_fail_running_ok _ _ _ _ Hok0 X) | exact (lost_fail_running_CB _ _ _ _ Hok0 HC0 X)].
  - intros s0. apply CBR_same; [intros _|]; reflexivity.
Qed.

Lemma handle_cancel_CB s jid s' : HOK (hq_of s) -> CB s -> handle_cancel s jid = Ok s' -> CB s'.
Proof.
  intros Hok HC H. unfold handle_cancel in H.
  destruct (find_job (hq_jobs s) jid) as [j|] eqn:Ej; [|inversion H; subst; eapply CB_same; [| |exact HC]; reflexivity].
  assert (Hjt : jt s jid = Some (j_tasks j)) by (unfold jt, hq_of; unfold hq_jobs in Ej; rewrite Ej; reflexivity).
  pose proof (find_job_id _ _ _ Ej) as Hid.
  assert (Hin : forall x, In x (non_finished_task_ids j) <-> fst x = jid /\ active s x).
  { intros x. rewrite (non_finished_in _ _ (jok_sorted _ (Hok _ (find_job_in _ _ _ Ej)))), Hid. split.
    - intros [Hf Ha]. split; [exact Hf|]. exists (j_tasks j). rewrite Hf. auto.
    - intros [Hf (l & Hl & Ha)]. split; [exact Hf|]. rewrite Hf, Hjt in Hl. inversion Hl; subst. exact Ha. }
  destruct (non_finished_task_ids j) as [|i0 ir] eqn:En; [inversion H; subst; eapply CB_same; [| |exact HC]; reflexivity|].
  rewrite <- En in *. clear En.
  apply bind_ok in H. destruct H as (s1 & H1 & H). apply bind_ok in H. destruct H as (al & _ & H).
  apply bind_ok in H. destruct H as (s2 & H2 & H). inversion H; subst.
  destruct (on_cancel_tasks_spec _ _ _ (cb_s _ HC) (cb_d _ HC) H1) as (X & Sh & X1 & X2).
  pose proof (on_cancel_tasks_hq _ _ _ H1) as Q1.
  destruct (set_cancel_state_active _ _ _ _ H2) as [C2 A2].
  eapply (CB_remove s _ X (non_finished_task_ids j)); [| | |exact HC].
  - change (shrinks (K s) (K s2) X). unfold K in *. rewrite C2. exact Sh.
  - intros x. rewrite (active_same s2 (emit s2 _)) by (intros; reflexivity). rewrite A2.
    rewrite (active_same s s1) by (apply jt_same; exact Q1). reflexivity.
  - intros x Hp. split.
    + intros Hx. destruct (X2 _ Hx) as (_ & y & Hy & _ & Hf). apply Hin. split.
      * rewrite Hf. apply Hin in Hy. apply Hy.
      * apply (cb_b _ HC). exact Hp.
    + intros Hx. apply X1; assumption.
Qed.
