(** Proofs about the job layer (C13, parts of C01, C08, C09, C14): for EVERY sequence of client
    requests and task-progress callbacks - also sequences the tako core would never produce - that
    the job layer processes without panicking, the per-state counters equal the number of tasks in
    that state and the completion flag is only set on closed jobs without active tasks. *)
From HQ Require Import Base.Prelude Cluster.Types Cluster.Core Cluster.Reactor Cluster.Worker Cluster.Server Cluster.Sys Cluster.Monitors.
From HQ Require Import Cluster.ModelFacts.
From Coq Require Import ZArith Lia.
Require Import ZifyBool ZifyN ZifyNat.
Local Open Scope N_scope.

Arguments N.add : simpl never.
Arguments N.sub : simpl never.
Arguments N.eqb : simpl never.
Arguments N.ltb : simpl never.

Definition jst_eqb (a b : jstate) : bool :=
  match a, b with
  | JW, JW | JR, JR | JF, JF | JX, JX | JC, JC | JA, JA => true
  | _, _ => false
  end.
Fixpoint cnt (l : list (N * jstate)) (v : jstate) : N :=
  match l with
  | [] => 0
  | (_, x) :: r => (if jst_eqb x v then 1 else 0) + cnt r v
  end.

Lemma count_state_cnt j v : count_state j v = cnt (j_tasks j) v.
Proof.
  unfold count_state. induction (j_tasks j) as [|[k x] r IH]; [reflexivity|].
  cbn [filter cnt snd]. destruct x, v; cbn [jst_eqb length]; rewrite <- ?IH; lia.
Qed.

Fixpoint jsorted (l : list (N * jstate)) : Prop :=
  match l with
  | [] => True
  | (k, _) :: r => (forall k' x, In (k', x) r -> k < k') /\ jsorted r
  end.

Lemma jt_find_in l t v : jt_find l t = Some v -> In (t, v) l.
Proof.
  induction l as [|[k x] r IH]; cbn [jt_find]; [discriminate|].
  destruct (N.eqb t k) eqn:E; intros H.
  - inversion H; subst. apply N.eqb_eq in E; subst. left; reflexivity.
  - right; auto.
Qed.
Lemma cnt_find_pos l k v : jt_find l k = Some v -> 0 < cnt l v.
Proof.
  induction l as [|[k0 x] r IH]; cbn [jt_find cnt]; [discriminate|].
  destruct (N.eqb k k0); intros H.
  - inversion H; subst. destruct v; cbn [jst_eqb]; lia.
  - specialize (IH H). lia.
Qed.

Lemma cnt_set_some l t v0 v1 v :
  jsorted l -> jt_find l t = Some v0 ->
  cnt (jt_set l t v1) v + (if jst_eqb v0 v then 1 else 0) = cnt l v + (if jst_eqb v1 v then 1 else 0).
Proof.
  induction l as [|[k x] r IH]; cbn [jt_find jt_set cnt]; [discriminate|].
  intros Hsd. cbn in Hsd. destruct Hsd as [Hlt Hs]. destruct (N.eqb t k) eqn:E.
  - intros H; inversion H; subst. cbn [cnt]. lia.
  - intros H. destruct (N.ltb t k) eqn:E2.
    + apply jt_find_in in H. specialize (Hlt _ _ H). lia.
    + cbn [cnt]. specialize (IH Hs H). lia.
Qed.

Lemma cnt_set_none l t v1 v :
  jt_find l t = None -> cnt (jt_set l t v1) v = cnt l v + (if jst_eqb v1 v then 1 else 0).
Proof.
  induction l as [|[k x] r IH]; cbn [jt_find jt_set cnt]; [lia|].
  destruct (N.eqb t k) eqn:E; [discriminate|].
  intros H. destruct (N.ltb t k); cbn [cnt]; [lia|]. rewrite (IH H). lia.
Qed.

Lemma jt_set_in l t v k x : In (k, x) (jt_set l t v) -> (k = t /\ x = v) \/ In (k, x) l.
Proof.
  induction l as [|[k0 x0] r IH]; cbn [jt_set].
  - intros [H|[]]; inversion H; auto.
  - destruct (N.eqb t k0) eqn:E.
    + intros [H|H]; [inversion H; auto | right; right; exact H].
    + destruct (N.ltb t k0).
      * intros [H|H]; [inversion H; auto | right; exact H].
      * intros [H|H]; [right; left; exact H|]. destruct (IH H); auto. right; right; assumption.
Qed.

Lemma jt_set_sorted l t v : jsorted l -> jsorted (jt_set l t v).
Proof.
  induction l as [|[k x] r IH]; cbn [jt_set]; [cbn; intros _; split; [intros k' x' []|exact I]|].
  intros Hsd. cbn in Hsd. destruct Hsd as [Hlt Hs]. destruct (N.eqb t k) eqn:E.
  - apply N.eqb_eq in E; subst. cbn. auto.
  - destruct (N.ltb t k) eqn:E2.
    + cbn. split; [|split; assumption].
      intros k' x' [H|H]; [inversion H; subst; lia|]. specialize (Hlt _ _ H). lia.
    + cbn. split; [|apply IH; assumption].
      intros k' x' H. apply jt_set_in in H. destruct H as [[-> ->]|H]; [lia | eauto].
Qed.

Record JOK (j : job) : Prop := mkJOK {
  jok_sorted : jsorted (j_tasks j);
  jok_run : j_nrun j = cnt (j_tasks j) JR;
  jok_fin : j_nfin j = cnt (j_tasks j) JF;
  jok_fail : j_nfail j = cnt (j_tasks j) JX;
  jok_canc : j_ncanc j = cnt (j_tasks j) JC;
  jok_abort : j_nabort j = cnt (j_tasks j) JA;
  jok_completed : j_completed j = true -> j_open j = false /\ cnt (j_tasks j) JW = 0 /\ cnt (j_tasks j) JR = 0
}.

Lemma JOK_counters j : JOK j -> job_counters_ok j = true.
Proof.
  intros [Ss R F X C A _]. unfold job_counters_ok. rewrite !count_state_cnt.
  rewrite R, F, X, C, A. rewrite !N.eqb_refl. reflexivity.
Qed.

Lemma cnt_total l : N.of_nat (length l) = cnt l JW + cnt l JA + cnt l JC + cnt l JX + cnt l JF + cnt l JR.
Proof.
  induction l as [|[k x] r IH]; [reflexivity|]. cbn [length cnt]. destruct x; cbn [jst_eqb]; lia.
Qed.

Lemma cnt_in_pos l k v : In (k, v) l -> 0 < cnt l v.
Proof.
  induction l as [|[k0 x] r IH]; [intros []|]. cbn [cnt].
  intros [H|H]; [inversion H; subst; destruct v; cbn [jst_eqb]; lia | specialize (IH H); lia].
Qed.

Lemma csub_add a b site : csub (a + b) b site = Ok a.
Proof.
  unfold csub. replace (N.ltb (a + b) b) with false by (symmetry; apply N.ltb_ge, N.le_add_l).
  rewrite N.add_sub. reflexivity.
Qed.
Lemma csub_ok a b site r : csub a b site = Ok r -> r = a - b.
Proof. unfold csub. destruct (N.ltb a b); intros H; inversion H; reflexivity. Qed.

(** The waiting count never underflows on a consistent job (C09: the `n_tasks - ...` subtractions):
    the total is the sum of the six counts, and each subtraction takes one summand off. *)
Lemma n_waiting_ok j : JOK j -> n_waiting j = Ok (cnt (j_tasks j) JW).
Proof.
  intros [Ss R F X C A _]. unfold n_waiting, job_n_tasks. rewrite (cnt_total (j_tasks j)), R, F, X, C, A.
  repeat (rewrite csub_add; cbn [bind]). reflexivity.
Qed.

Lemma has_no_active_ok j : JOK j -> has_no_active_tasks j = Ok (N.eqb (cnt (j_tasks j) JR) 0 && N.eqb (cnt (j_tasks j) JW) 0).
Proof.
  intros H. unfold has_no_active_tasks. rewrite (n_waiting_ok _ H). cbn [bind]. rewrite (jok_run _ H). reflexivity.
Qed.

Definition HOK (h : hq) : Prop := forall j, In j (h_jobs h) -> JOK j.

Lemma set_job_in js x j : In j (set_job js x) -> j = x \/ In j js.
Proof.
  induction js as [|h t IH]; cbn [set_job].
  - intros [H|[]]; auto.
  - destruct (N.eqb (j_id x) (j_id h)).
    + intros [H|H]; auto. right; right; exact H.
    + destruct (N.ltb (j_id x) (j_id h)).
      * intros [H|H]; auto.
      * intros [H|H]; [right; left; exact H|]. destruct (IH H); auto. right; right; assumption.
Qed.
Lemma find_job_in js id j : find_job js id = Some j -> In j js.
Proof.
  induction js as [|h t IH]; cbn [find_job]; [discriminate|].
  destruct (N.eqb id (j_id h)); intros H; [inversion H; left; reflexivity | right; auto].
Qed.
Lemma del_job_in js id j : In j (del_job js id) -> In j js.
Proof. unfold del_job. intros H. apply filter_In in H. tauto. Qed.

Definition hq_of (s : st) : hq := s_hq (fst s).

Lemma hq_set_job_ok s j : HOK (hq_of s) -> JOK j -> HOK (hq_of (hq_set_job s j)).
Proof.
  intros H Hj x Hx. unfold hq_of, hq_set_job in Hx. cbn in Hx.
  apply set_job_in in Hx. destruct Hx as [->|Hx]; [exact Hj | apply H; exact Hx].
Qed.
Lemma hq_set_job_find s j id :
  find_job (h_jobs (hq_of (hq_set_job s j))) id = if N.eqb id (j_id j) then Some j else find_job (h_jobs (hq_of s)) id.
Proof. apply find_job_set. Qed.
Lemma hq_get_job_ok s id site j : HOK (hq_of s) -> hq_get_job s id site = Ok j -> JOK j.
Proof.
  unfold hq_get_job. destruct (find_job _ id) eqn:E; [|discriminate].
  intros H Hj; inversion Hj; subst. apply H. eapply find_job_in; exact E.
Qed.
Lemma hq_get_job_find s id site j : hq_get_job s id site = Ok j -> find_job (h_jobs (hq_of s)) id = Some j /\ j_id j = id.
Proof.
  unfold hq_get_job, hq_of. destruct (find_job _ id) as [j0|] eqn:E; [|discriminate]. intros H. inversion H; subst.
  split; [reflexivity | eapply find_job_id; exact E].
Qed.
Lemma emit_hq s o : hq_of (emit s o) = hq_of s.
Proof. reflexivity. Qed.

Ltac inv_bind H :=
  let a := fresh "a" in let H1 := fresh "Hb" in let H2 := fresh "Hb" in
  apply bind_ok in H; destruct H as (a & H1 & H2).

Lemma check_termination_ok s jid s' :
  HOK (hq_of s) -> check_termination s jid = Ok s' -> HOK (hq_of s').
Proof.
  intros H Hc. unfold check_termination in Hc.
  inv_bind Hc. pose proof (hq_get_job_ok _ _ _ _ H Hb) as Hj.
  rewrite (has_no_active_ok _ Hj) in Hb0. cbn [bind] in Hb0.
  destruct (N.eqb (cnt (j_tasks a) JR) 0 && N.eqb (cnt (j_tasks a) JW) 0) eqn:E; [|inversion Hb0; subst; exact H].
  destruct (j_open a) eqn:Eo; [inversion Hb0; subst; exact H|].
  inversion Hb0; subst. rewrite emit_hq. apply hq_set_job_ok; [exact H|].
  destruct Hj as [Ss R F X C A Cm]. constructor; cbn; auto.
  intros _. apply andb_true_iff in E. destruct E as [E1 E2]. apply N.eqb_eq in E1, E2. auto.
Qed.

Lemma check_termination_find s jid s' :
  check_termination s jid = Ok s' ->
  forall id j, find_job (h_jobs (hq_of s)) id = Some j ->
  exists j', find_job (h_jobs (hq_of s')) id = Some j' /\
    (j' = j \/ j' = job_upd j (j_tasks j) (j_nrun j) (j_nfin j) (j_nfail j) (j_ncanc j) (j_nabort j) true).
Proof.
  unfold check_termination, hq_get_job. intros H id j Hj.
  destruct (find_job _ jid) as [j0|] eqn:E0; [|discriminate]. cbn [bind] in H.
  inv_bind H. destruct a; [|inversion Hb0; subst; eauto]. destruct (j_open j0); inversion Hb0; subst; [eauto|].
  rewrite emit_hq, hq_set_job_find. cbn [j_id job_upd].
  destruct (N.eqb id (j_id j0)) eqn:Eid; [|eauto].
  apply N.eqb_eq in Eid. rewrite (find_job_id _ _ _ E0) in Eid. subst id.
  unfold hq_of in Hj. rewrite E0 in Hj. inversion Hj; subst. eauto.
Qed.

(** The counter a job keeps for the tasks in state [v] (none for the waiting ones). *)
Definition ctr (j : job) (v : jstate) : N :=
  match v with JW => 0 | JR => j_nrun j | JF => j_nfin j | JX => j_nfail j | JC => j_ncanc j | JA => j_nabort j end.

Lemma jst_eqb_eq a b : jst_eqb a b = true -> a = b.
Proof. destruct a, b; (reflexivity || discriminate). Qed.

(** One task leaves an active state [v0] for [v1]: [v1]'s counter is bumped, [v0]'s is lowered (it
    cannot underflow: the task was counted), everything else is kept.  A job with an active task is
    not completed, so the completion flag stays sound. *)
Lemma JOK_move j j' t v0 v1 :
  JOK j -> jt_find (j_tasks j) t = Some v0 -> v0 = JW \/ v0 = JR -> v0 <> v1 ->
  j_tasks j' = jt_set (j_tasks j) t v1 -> j_completed j' = j_completed j ->
  (forall v, v <> JW -> ctr j' v = if jst_eqb v1 v then ctr j v + 1 else if jst_eqb v0 v then ctr j v - 1 else ctr j v) ->
  JOK j'.
Proof.
  intros [Ss R F X C A Cm] Ef Hact Hne Et Ec Hc.
  assert (HC : forall v, v <> JW -> ctr j' v = cnt (j_tasks j') v).
  { intros v Hv. rewrite (Hc v Hv), Et. pose proof (cnt_set_some _ _ _ v1 v Ss Ef) as M.
    assert (Hk : ctr j v = cnt (j_tasks j) v) by (destruct v; try assumption; now destruct Hv).
    rewrite Hk. clear - M Hne. destruct (jst_eqb v1 v) eqn:E1, (jst_eqb v0 v) eqn:E0; try lia.
    apply jst_eqb_eq in E1, E0. congruence. }
  constructor; [rewrite Et; apply jt_set_sorted; exact Ss | apply (HC JR) | apply (HC JF) | apply (HC JX) | apply (HC JC) | apply (HC JA) |];
    try discriminate.
  rewrite Ec. intros Hcm. destruct (Cm Hcm) as (_ & Hw & Hr).
  pose proof (cnt_in_pos _ _ _ (jt_find_in _ _ _ Ef)) as Hp. destruct Hact; subst v0; lia.
Qed.

Lemma process_task_started_ok s t inst ws rv s' :
  HOK (hq_of s) -> process_task_started s t inst ws rv = Ok s' -> HOK (hq_of s').
Proof.
  intros H Hc. unfold process_task_started in Hc. inv_bind Hc.
  pose proof (hq_get_job_ok _ _ _ _ H Hb) as Hj.
  destruct (jt_find (j_tasks a) (snd t)) as [v|] eqn:Ef; [|discriminate].
  inversion Hb0; subst. rewrite emit_hq. apply hq_set_job_ok; [exact H|].
  destruct v; try exact Hj.
  apply (JOK_move a _ (snd t) JW JR Hj Ef); auto; try discriminate.
  intros [] Hv; reflexivity.
Qed.

Lemma process_task_finished_ok s t s' :
  HOK (hq_of s) -> process_task_finished s t = Ok s' -> HOK (hq_of s').
Proof.
  intros H Hc. unfold process_task_finished in Hc. inv_bind Hc.
  pose proof (hq_get_job_ok _ _ _ _ H Hb) as Hj.
  destruct (jt_find (j_tasks a) (snd t)) as [v|] eqn:Ef; [|discriminate].
  destruct v; try discriminate. inv_bind Hb0. apply csub_ok in Hb1. subst a0.
  eapply check_termination_ok; [|exact Hb2]. rewrite emit_hq. apply hq_set_job_ok; [exact H|].
  apply (JOK_move a _ (snd t) JR JF Hj Ef); auto; try discriminate.
  intros [] Hv; reflexivity.
Qed.

Lemma set_waiting_state_ok s t s' :
  HOK (hq_of s) -> set_waiting_state s t = Ok s' -> HOK (hq_of s').
Proof.
  intros H Hc. unfold set_waiting_state in Hc. inv_bind Hc.
  pose proof (hq_get_job_ok _ _ _ _ H Hb) as Hj.
  destruct (jt_find (j_tasks a) (snd t)) as [v|] eqn:Ef; [|discriminate].
  destruct v; try (inversion Hb0; subst; exact H).
  inv_bind Hb0. apply csub_ok in Hb1. subst a0. inversion Hb2; subst. apply hq_set_job_ok; [exact H|].
  apply (JOK_move a _ (snd t) JR JW Hj Ef); auto; try discriminate.
  intros [] Hv; try reflexivity. now destruct Hv.
Qed.

Lemma set_waiting_all_ok ts : forall s s',
  HOK (hq_of s) -> set_waiting_all s ts = Ok s' -> HOK (hq_of s').
Proof.
  induction ts as [|t r IH]; cbn [set_waiting_all]; intros s s' H Hc; [inversion Hc; subst; exact H|].
  inv_bind Hc. eapply IH; [|exact Hb0]. eapply set_waiting_state_ok; eassumption.
Qed.

Lemma process_worker_lost_ok s w running reason s' :
  HOK (hq_of s) -> process_worker_lost s w running reason = Ok s' -> HOK (hq_of s').
Proof.
  intros H Hc. unfold process_worker_lost in Hc. inv_bind Hc. inversion Hb0; subst.
  rewrite emit_hq. eapply set_waiting_all_ok; eassumption.
Qed.

(** [mark_tasks]: every marked task moves from Waiting / Running to [target]; the target counter
    lags behind by the number of marked tasks until the caller adds it. *)
Definition is_abort_or_cancel (v : jstate) : Prop := v = JC \/ v = JA.

Record JOKx (j : job) (target : jstate) (k : N) : Prop := mkJOKx {
  jx_sorted : jsorted (j_tasks j);
  jx_run : j_nrun j = cnt (j_tasks j) JR;
  jx_fin : j_nfin j = cnt (j_tasks j) JF;
  jx_fail : j_nfail j = cnt (j_tasks j) JX;
  jx_canc : j_ncanc j + (if jst_eqb target JC then k else 0) = cnt (j_tasks j) JC;
  jx_abort : j_nabort j + (if jst_eqb target JA then k else 0) = cnt (j_tasks j) JA
}.

Lemma JOKx_mark j target k t v0 nr :
  is_abort_or_cancel target -> JOKx j target k -> jt_find (j_tasks j) t = Some v0 -> v0 = JW \/ v0 = JR ->
  nr = (if jst_eqb v0 JR then j_nrun j - 1 else j_nrun j) ->
  JOKx (job_upd j (jt_set (j_tasks j) t target) nr (j_nfin j) (j_nfail j) (j_ncanc j) (j_nabort j) (j_completed j)) target (k + 1)
  /\ cnt (j_tasks j) JW + cnt (j_tasks j) JR > 0.
Proof.
  intros Ht [Ss R F X C A] Ef Hact ->.
  pose proof (fun v => cnt_set_some _ _ _ target v Ss Ef) as HC.
  pose proof (HC JW) as H1. pose proof (HC JR) as H2. pose proof (HC JF) as H3.
  pose proof (HC JX) as H4. pose proof (HC JC) as H5. pose proof (HC JA) as H6. clear HC Ef.
  split; [constructor; cbn [job_upd j_tasks j_nrun j_nfin j_nfail j_ncanc j_nabort]; [apply jt_set_sorted; exact Ss|..]|];
    destruct Ht, Hact; subst target v0; cbn [jst_eqb] in *; lia.
Qed.

Lemma mark_tasks_ok target site ids : is_abort_or_cancel target -> forall j j' k,
  JOKx j target k -> mark_tasks j ids target site = Ok j' ->
  JOKx j' target (k + N.of_nat (length ids))
  /\ j_open j' = j_open j /\ j_completed j' = j_completed j /\ j_id j' = j_id j /\ j_maxfails j' = j_maxfails j
  /\ (ids <> [] -> cnt (j_tasks j) JW + cnt (j_tasks j) JR > 0).
Proof.
  intros Ht. induction ids as [|t r IH]; cbn [mark_tasks length]; intros j j' k Hj Hc.
  - inversion Hc; subst. rewrite N.add_0_r. split; [exact Hj|]. do 4 (split; [reflexivity|]). intros Hn; now destruct Hn.
  - destruct (negb (N.eqb (fst t) (j_id j))); [discriminate|].
    destruct (jt_find (j_tasks j) (snd t)) as [v|] eqn:Ef; [|discriminate].
    assert (Hstep : forall nr, (v = JW \/ v = JR) -> nr = (if jst_eqb v JR then j_nrun j - 1 else j_nrun j) ->
              mark_tasks (job_upd j (jt_set (j_tasks j) (snd t) target) nr (j_nfin j) (j_nfail j) (j_ncanc j) (j_nabort j) (j_completed j)) r target site = Ok j' ->
              JOKx j' target (k + N.of_nat (S (length r)))
              /\ j_open j' = j_open j /\ j_completed j' = j_completed j /\ j_id j' = j_id j /\ j_maxfails j' = j_maxfails j
              /\ (t :: r <> [] -> cnt (j_tasks j) JW + cnt (j_tasks j) JR > 0)).
    { intros nr Hv Hnr Hm. destruct (JOKx_mark j target k (snd t) v nr Ht Hj Ef Hv Hnr) as [Hj1 Hpos].
      destruct (IH _ _ _ Hj1 Hm) as (I1 & I2 & I3 & I4 & I5 & _).
      rewrite Nat2N.inj_succ, <- N.add_1_l, N.add_assoc. split; [exact I1|]. cbn in I2, I3, I4, I5. auto. }
    destruct v; try discriminate.
    + apply (Hstep (j_nrun j)); auto.
    + inv_bind Hc. apply csub_ok in Hb. subst a. apply (Hstep (j_nrun j - 1)); auto.
Qed.

Lemma JOK_JOKx j target : JOK j -> JOKx j target 0.
Proof.
  intros [Ss R F X C A _]. constructor; auto; destruct (jst_eqb target _); lia.
Qed.

Lemma marked_ok s jid j j1 ids target site s1 :
  is_abort_or_cancel target -> ids <> [] ->
  HOK (hq_of s) -> hq_get_job s jid 207 = Ok j -> mark_tasks j ids target site = Ok j1 ->
  hq_of s1 = hq_of (hq_set_job s (job_upd j1 (j_tasks j1) (j_nrun j1) (j_nfin j1) (j_nfail j1)
     (j_ncanc j1 + (if jst_eqb target JC then N.of_nat (length ids) else 0))
     (j_nabort j1 + (if jst_eqb target JA then N.of_nat (length ids) else 0)) (j_completed j1))) ->
  HOK (hq_of s1).
Proof.
  intros Ht Hne H Hg Hm ->. pose proof (hq_get_job_ok _ _ _ _ H Hg) as Hj.
  destruct (mark_tasks_ok _ _ _ Ht _ _ 0 (JOK_JOKx _ target Hj) Hm) as ([Ss R F X C A] & O1 & O2 & O3 & O4 & Hact).
  apply hq_set_job_ok; [exact H|]. rewrite N.add_0_l in C, A. constructor; cbn; auto.
  intros Hcm. rewrite O2 in Hcm. destruct (jok_completed _ Hj Hcm) as (_ & Hw & Hr). specialize (Hact Hne). lia.
Qed.

Lemma abort_tasks_ok s jid ids s' :
  HOK (hq_of s) -> abort_tasks s jid ids = Ok s' -> HOK (hq_of s').
Proof.
  intros H Hc. unfold abort_tasks in Hc. destruct ids as [|i0 ir]; [inversion Hc; subst; exact H|].
  inv_bind Hc. inv_bind Hb0. eapply check_termination_ok; [|exact Hb2].
  eapply (marked_ok s jid a a0 (i0 :: ir) JA 206); [right; reflexivity | discriminate | exact H | exact Hb | exact Hb1|].
  cbn [jst_eqb]. rewrite N.add_0_r. reflexivity.
Qed.

Lemma set_cancel_state_ok s jid ids s' :
  HOK (hq_of s) -> set_cancel_state s jid ids = Ok s' -> HOK (hq_of s').
Proof.
  intros H Hc. unfold set_cancel_state in Hc. destruct ids as [|i0 ir]; [inversion Hc; subst; exact H|].
  inv_bind Hc. inv_bind Hb0. eapply check_termination_ok; [|exact Hb2].
  eapply (marked_ok s jid a a0 (i0 :: ir) JC 205); [left; reflexivity | discriminate | exact H | exact Hb | exact Hb1|].
  cbn [jst_eqb]. rewrite N.add_0_r. reflexivity.
Qed.

(** The failed task's own update in [process_task_failed]: Waiting or Running becomes Failed. *)
Definition set_failed (j : job) (t : N) : res job :=
  match jt_find (j_tasks j) t with
  | Some JR =>
      do nr <- csub (j_nrun j) 1 203;
      Ok (job_upd j (jt_set (j_tasks j) t JX) nr (j_nfin j) (j_nfail j + 1) (j_ncanc j) (j_nabort j) (j_completed j))
  | Some JW =>
      Ok (job_upd j (jt_set (j_tasks j) t JX) (j_nrun j) (j_nfin j) (j_nfail j + 1) (j_ncanc j) (j_nabort j) (j_completed j))
  | Some _ => Panic 204
  | None => Panic 201
  end.

Lemma set_failed_ok j t j1 : JOK j -> set_failed j t = Ok j1 -> JOK j1.
Proof.
  unfold set_failed. intros Hj Hc. destruct (jt_find (j_tasks j) t) as [v|] eqn:Ef; [|discriminate].
  destruct v; try discriminate.
  - inversion Hc; subst. apply (JOK_move j _ t JW JX Hj Ef); auto; try discriminate. intros [] Hv; reflexivity.
  - inv_bind Hc. apply csub_ok in Hb. subst a. inversion Hb0; subst.
    apply (JOK_move j _ t JR JX Hj Ef); auto; try discriminate. intros [] Hv; reflexivity.
Qed.

(** [process_task_failed] from its pieces, for a transitive relation: the dependants are aborted, the
    task itself is marked failed and reported, termination is checked, and past the failure limit
    the rest of the job is aborted. *)
Lemma process_task_failed_rel (R : st -> st -> Prop) :
  (forall a b c, R a b -> R b c -> R a c) ->
  (forall s jid ids s', abort_tasks s jid ids = Ok s' -> R s s') ->
  (forall s t k j j1, hq_get_job s (fst t) 207 = Ok j -> set_failed j (snd t) = Ok j1 ->
     R s (emit (hq_set_job s j1) (OEv (EvFailed t k)))) ->
  (forall s jid s', check_termination s jid = Ok s' -> R s s') ->
  forall s t aborted k s' ids, process_task_failed s t aborted k = Ok (s', ids) -> R s s'.
Proof.
  intros R_trans R_abort R_set R_ct s t aborted k s' ids H. unfold process_task_failed in H.
  apply bind_ok in H. destruct H as (s1 & H1 & H). apply bind_ok in H. destruct H as (j & Hj & H).
  apply bind_ok in H. destruct H as (j1 & Hj1 & H). apply bind_ok in H. destruct H as (s2 & H2 & H).
  apply bind_ok in H. destruct H as (j2 & _ & H).
  assert (R2 : R s s2).
  { eapply R_trans; [exact (R_abort _ _ _ _ H1)|]. eapply R_trans; [exact (R_set _ t k _ _ Hj Hj1) | exact (R_ct _ _ _ H2)]. }
  destruct (j_maxfails j2) as [mf|]; [|inversion H; subst; exact R2].
  destruct (N.ltb mf (j_nfail j2)); [|inversion H; subst; exact R2].
  apply bind_ok in H. destruct H as (s3 & H3 & H). inversion H; subst. exact (R_trans _ _ _ R2 (R_abort _ _ _ _ H3)).
Qed.

Lemma process_task_failed_ok s t aborted k s' ids :
  HOK (hq_of s) -> process_task_failed s t aborted k = Ok (s', ids) -> HOK (hq_of s').
Proof.
  intros H Hc. revert H.
  refine (process_task_failed_rel (fun x x' => HOK (hq_of x) -> HOK (hq_of x')) (fun _ _ _ A B X => B (A X)) _ _ _ s t aborted k s' ids Hc).
  - intros s0 jid l s1 X H. exact (abort_tasks_ok _ _ _ _ H X).
  - intros s0 t0 k0 j j1 Hj Hj1 H. rewrite emit_hq. apply hq_set_job_ok; [exact H|].
    exact (set_failed_ok _ _ _ (hq_get_job_ok _ _ _ _ H Hj) Hj1).
  - intros s0 jid s1 X H. exact (check_termination_ok _ _ _ H X).
Qed.

Lemma send_worker_hq s w m s' : send_worker s w m = Ok s' -> hq_of s' = hq_of s.
Proof. unfold send_worker. destruct (find_proc _ w); [|discriminate]. intros H; inversion H; reflexivity. Qed.
Lemma send_all_hq msgs : forall s s', send_all s msgs = Ok s' -> hq_of s' = hq_of s.
Proof.
  induction msgs as [|[w m] r IH]; cbn [send_all]; intros s s' H; [inversion H; reflexivity|].
  inv_bind H. rewrite (IH _ _ Hb0). eapply send_worker_hq; exact Hb.
Qed.
Lemma process_retracted_hq s r s' : process_retracted s r = Ok s' -> hq_of s' = hq_of s.
Proof.
  unfold process_retracted. destruct r; [intros H; inversion H; reflexivity|].
  intros H. inv_bind H. destruct a as [c' groups]. apply send_all_hq in Hb0. exact Hb0.
Qed.

Lemma cancel_release_hq ids : forall s tu ru s' tu' ru',
  cancel_release s ids tu ru = Ok (s', tu', ru') -> hq_of s' = hq_of s.
Proof.
  induction ids as [|id r IH]; cbn [cancel_release]; intros s tu ru s' tu' ru' H; [inversion H; reflexivity|].
  destruct (find_task _ id) as [t|]; [|eapply IH; exact H].
  inv_bind H. inv_bind Hb0.
  destruct (t_state t).
  - apply IH in Hb2. exact Hb2.
  - inv_bind Hb2. inv_bind Hb3. apply IH in Hb4. exact Hb4.
  - inv_bind Hb2. inv_bind Hb3. inv_bind Hb4. inv_bind Hb5. apply IH in Hb6. exact Hb6.
  - inv_bind Hb2. apply IH in Hb3. exact Hb3.
  - inv_bind Hb2. inv_bind Hb3. apply IH in Hb4. exact Hb4.
  - inv_bind Hb2. destruct ws; [discriminate|]. apply IH in Hb3. exact Hb3.
  - discriminate.
Qed.

Lemma on_cancel_tasks_hq s ids s' : on_cancel_tasks s ids = Ok s' -> hq_of s' = hq_of s.
Proof.
  unfold on_cancel_tasks. intros H. inv_bind H. destruct a as [[s1 tu] ru].
  inv_bind Hb0.
  match goal with X : send_all _ _ = Ok s' |- _ => apply send_all_hq in X; cbn in X; rewrite X end.
  eapply cancel_release_hq; exact Hb.
Qed.

Lemma on_new_tasks_hq s ts s' : on_new_tasks s ts = Ok s' -> hq_of s' = hq_of s.
Proof.
  unfold on_new_tasks. destruct ts; [intros H; inversion H; reflexivity|].
  intros H. inv_bind H. destruct a as [c' r]. inv_bind Hb0.
  match goal with X : Ok _ = Ok s' |- _ => inversion X; subst end.
  match goal with X : process_retracted _ _ = Ok _ |- _ => apply process_retracted_hq in X; exact X end.
Qed.

Lemma handle_open_ok s mf s' : HOK (hq_of s) -> handle_open s mf = Ok s' -> HOK (hq_of s').
Proof.
  intros H Hc. unfold handle_open in Hc. inversion Hc; subst. rewrite !emit_hq.
  intros j Hj. unfold hq_of, hq_with in Hj. cbn in Hj. apply set_job_in in Hj. destruct Hj as [->|Hj]; [|apply H; exact Hj].
  constructor; cbn; auto; try discriminate.
Qed.

Lemma handle_close_ok s jid s' : HOK (hq_of s) -> handle_close s jid = Ok s' -> HOK (hq_of s').
Proof.
  intros H Hc. unfold handle_close in Hc.
  destruct (find_job (hq_jobs s) jid) as [j|] eqn:Ef; [|inversion Hc; subst; exact H].
  destruct (j_open j) eqn:Eo; [|inversion Hc; subst; exact H].
  inv_bind Hc. inversion Hb0; subst. rewrite emit_hq.
  eapply check_termination_ok; [|exact Hb]. rewrite emit_hq. apply hq_set_job_ok; [exact H|].
  pose proof (H _ (find_job_in _ _ _ Ef)) as [Ss R F X C A Cm]. constructor; cbn; auto.
  intros Hcm. destruct (Cm Hcm) as (Ho & _). congruence.
Qed.

Lemma handle_forget_ok s jid s' : HOK (hq_of s) -> handle_forget s jid = Ok s' -> HOK (hq_of s').
Proof.
  intros H Hc. unfold handle_forget in Hc.
  destruct (find_job (hq_jobs s) jid) as [j|] eqn:Ef; [|inversion Hc; subst; exact H].
  inv_bind Hc. destruct (negb (j_open j) && a); inversion Hb0; subst; rewrite emit_hq; [|exact H].
  intros x Hx. unfold hq_of, hq_with in Hx. cbn in Hx. apply del_job_in in Hx. apply H; exact Hx.
Qed.

(** [handle_cancel] from its pieces, for a transitive relation that a response to the client keeps:
    the core releases the tasks, the job layer records the cancellation, the client is answered. *)
Lemma handle_cancel_rel (R : st -> st -> Prop) :
  (forall a b c, R a b -> R b c -> R a c) ->
  (forall s r, R s (emit s (OResp r))) ->
  (forall s ids s', on_cancel_tasks s ids = Ok s' -> R s s') ->
  (forall s jid ids s', set_cancel_state s jid ids = Ok s' -> R s s') ->
  forall s jid s', handle_cancel s jid = Ok s' -> R s s'.
Proof.
  intros R_trans R_resp R_core R_set s jid s' H. unfold handle_cancel in H.
  destruct (find_job (hq_jobs s) jid) as [j|]; [|inversion H; subst; apply R_resp].
  destruct (non_finished_task_ids j); [inversion H; subst; apply R_resp|].
  apply bind_ok in H. destruct H as (s1 & H1 & H). apply bind_ok in H. destruct H as (al & _ & H).
  apply bind_ok in H. destruct H as (s2 & H2 & H). inversion H; subst.
  eapply R_trans; [exact (R_core _ _ _ H1)|]. eapply R_trans; [exact (R_set _ _ _ _ H2) | apply R_resp].
Qed.

Lemma handle_cancel_ok s jid s' : HOK (hq_of s) -> handle_cancel s jid = Ok s' -> HOK (hq_of s').
Proof.
  intros H Hc. revert H.
  refine (handle_cancel_rel (fun x x' => HOK (hq_of x) -> HOK (hq_of x')) (fun _ _ _ A B X => B (A X)) (fun _ _ X => X) _ _ s jid s' Hc).
  - intros x ids x' X H. rewrite (on_cancel_tasks_hq _ _ _ X). exact H.
  - intros x j ids x' X H. exact (set_cancel_state_ok _ _ _ _ H X).
Qed.

(** C08 (idempotence): cancelling a job that has no non-terminal task changes nothing and emits
    nothing but the response. *)
Lemma handle_cancel_idempotent s jid j :
  find_job (hq_jobs s) jid = Some j -> non_finished_task_ids j = [] ->
  handle_cancel s jid = Ok (emit s (OResp (RCancelOk [] (job_n_tasks j)))).
Proof. intros Ef En. unfold handle_cancel. rewrite Ef, En. reflexivity. Qed.

(** * The job layer as a state machine of its own: client requests and arbitrary callbacks. *)
Inductive jop :=
| JStarted (t : tid) (inst : N) (ws : list wid) (rv : N)
| JFinished (t : tid)
| JFailed (t : tid) (aborted : list tid) (k : failkind)
| JWorkerLost (w : wid) (running : list tid) (reason : N)
| JOpen (mf : option N)
| JClose (j : N)
| JCancel (j : N)
| JForget (j : N).

Definition jstep (s : st) (o : jop) : res st :=
  match o with
  | JStarted t inst ws rv => process_task_started s t inst ws rv
  | JFinished t => process_task_finished s t
  | JFailed t aborted k => do r <- process_task_failed s t aborted k; Ok (fst r)
  | JWorkerLost w running reason => process_worker_lost s w running reason
  | JOpen mf => handle_open s mf
  | JClose j => handle_close s j
  | JCancel j => handle_cancel s j
  | JForget j => handle_forget s j
  end.

Fixpoint jrun (s : st) (ops : list jop) : res st :=
  match ops with
  | [] => Ok s
  | o :: r => do s' <- jstep s o; jrun s' r
  end.

Lemma jstep_ok s o s' : HOK (hq_of s) -> jstep s o = Ok s' -> HOK (hq_of s').
Proof.
  intros H Hc. destruct o; cbn [jstep] in Hc.
  - eapply process_task_started_ok; eassumption.
  - eapply process_task_finished_ok; eassumption.
  - inv_bind Hc. destruct a as [s1 ids]. inversion Hb0; subst. eapply process_task_failed_ok; eassumption.
  - eapply process_worker_lost_ok; eassumption.
  - eapply handle_open_ok; eassumption.
  - eapply handle_close_ok; eassumption.
  - eapply handle_cancel_ok; eassumption.
  - eapply handle_forget_ok; eassumption.
Qed.

Theorem jrun_ok ops : forall s s', HOK (hq_of s) -> jrun s ops = Ok s' -> HOK (hq_of s').
Proof.
  induction ops as [|o r IH]; cbn [jrun]; intros s s' H Hc; [inversion Hc; subst; exact H|].
  inv_bind Hc. eapply IH; [|exact Hb0]. eapply jstep_ok; eassumption.
Qed.

Lemma HOK_hq_ok s : HOK (s_hq s) -> hq_ok s = true.
Proof.
  intros H. unfold hq_ok. apply andb_true_iff; split; apply forallb_forall; intros j Hj.
  - apply JOK_counters. apply H. exact Hj.
  - pose proof (H _ Hj) as Hjk. unfold job_completed_ok. destruct (j_completed j) eqn:Ec; [|reflexivity].
    destruct (jok_completed _ Hjk Ec) as (Ho & Hw & Hr). rewrite Ho. cbn.
    unfold job_active. apply negb_true_iff. apply not_true_iff_false. intros Hex.
    apply existsb_exists in Hex. destruct Hex as ([k x] & Hin & Hx).
    pose proof (cnt_in_pos _ _ _ Hin) as Hpos.
    cbn in Hx. destruct x; try discriminate; lia.
Qed.

(** Main theorem (C13): counters = counts and the completion flag is sound after any history. *)
Theorem job_layer_counters_exact ops reserve maxfill s' :
  jrun (init_sys reserve maxfill, []) ops = Ok s' -> hq_ok (fst s') = true.
Proof.
  intros H. apply HOK_hq_ok. eapply (jrun_ok ops (init_sys reserve maxfill, [])); [|exact H].
  intros j [].
Qed.

(** Non-vacuity: a history that opens, closes and forgets a job, opens another and cancels it. *)
Example job_layer_history_runs :
  exists s', jrun (init_sys 2 3, []) [JOpen (Some 0); JClose 1; JForget 1; JOpen None; JCancel 2] = Ok s'
             /\ hq_ok (fst s') = true.
Proof. eexists. split; [vm_compute; reflexivity | vm_compute; reflexivity]. Qed.
