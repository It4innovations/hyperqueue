(** C06 "instance ids strictly increase": what the server's functions do to the tasks.
    Relation [TT T N c c'] (technique of InvWX1.v): every task of [c'] is a task of [c] with the same
    id, an instance id that did not decrease and - if it did not grow - a state that is [Waiting]
    only if it was [Waiting] before or the task is in the trigger set [T] (the ids a worker gives
    back in the message being processed); or it is a new task (set [N]).
    This file: the reactor. *)
From HQ Require Import Base.Prelude Cluster.Types Cluster.Core Cluster.Reactor Cluster.Worker Cluster.Server Cluster.Sys Cluster.ProofsJob Cluster.ProofsMore Cluster.ProofsStep Cluster.BijBase Cluster.BijCore Cluster.BijHq Cluster.BijSt Cluster.BijReact Cluster.InvWBase Cluster.InvWX1.
From HQ Require Import Cluster.ModelFacts.
From HQ Require Import Cluster.ReactSplit.
From Coq Require Import ZArith Lia Sorting.Sorted.
Local Open Scope N_scope.

Arguments N.add : simpl never.
Arguments N.sub : simpl never.

Definition TT (T N : tid -> Prop) (c c' : core) : Prop :=
  forall t', In t' (c_tasks c') ->
    (exists t, In t (c_tasks c) /\ t_id t = t_id t' /\ t_inst t <= t_inst t' /\
       (t_inst t' = t_inst t -> is_waiting t' = true -> is_waiting t = true \/ T (t_id t')))
    \/ N (t_id t').

Section Blocks.
Variables T N : tid -> Prop.

Lemma TT_refl c : TT T N c c.
Proof. intros t Hin. left. exists t. repeat split; auto. lia. Qed.

Lemma TT_trans c1 c2 c3 : TT T N c1 c2 -> TT T N c2 c3 -> TT T N c1 c3.
Proof.
  intros A B t3 H3. destruct (B t3 H3) as [(t2 & H2 & Ei & Le & W)|Hn]; [|right; exact Hn].
  destruct (A t2 H2) as [(t1 & H1 & Ei1 & Le1 & W1)|Hn]; [|right; rewrite <- Ei; exact Hn].
  left. exists t1. split; [exact H1|]. split; [congruence|]. split; [lia|].
  intros E Hw. assert (E2 : t_inst t3 = t_inst t2) by lia. assert (E1 : t_inst t2 = t_inst t1) by lia.
  destruct (W E2 Hw) as [Hw2|Ht]; [|right; exact Ht]. destruct (W1 E1 Hw2) as [Hw1|Ht]; [left; exact Hw1 | right; rewrite <- Ei; exact Ht].
Qed.

Lemma TT_tasks c c' : c_tasks c' = c_tasks c -> TT T N c c'.
Proof. intros E t H. left. exists t. rewrite <- E. repeat split; auto. lia. Qed.

Lemma TT_set c c' x t : c_tasks c' = set_task (c_tasks c) x -> In t (c_tasks c) -> t_id x = t_id t -> t_inst t <= t_inst x ->
  (t_inst x = t_inst t -> is_waiting x = true -> is_waiting t = true \/ T (t_id x)) -> TT T N c c'.
Proof.
  intros E Hin Ei Le W t' H. rewrite E in H. destruct (set_task_in _ _ _ H) as [->|Hin'].
  - left. exists t. auto.
  - left. exists t'. repeat split; auto. lia.
Qed.

Lemma TT_new c c' x : c_tasks c' = set_task (c_tasks c) x -> N (t_id x) -> TT T N c c'.
Proof.
  intros E Hn t' H. rewrite E in H. destruct (set_task_in _ _ _ H) as [->|Hin']; [right; exact Hn|].
  left. exists t'. repeat split; auto. lia.
Qed.

Lemma TT_sub c c' : (forall t', In t' (c_tasks c') -> exists t, In t (c_tasks c) /\ t_id t = t_id t' /\ t_state t = t_state t' /\ t_inst t = t_inst t') -> TT T N c c'.
Proof.
  intros H t' Hin. destruct (H t' Hin) as (t & H1 & Ei & Es & En). left. exists t. split; [exact H1|]. split; [exact Ei|]. split; [lia|].
  intros _ Hw. left. unfold is_waiting in *. rewrite Es. exact Hw.
Qed.
End Blocks.

Lemma TT_weaken (T N T' N' : tid -> Prop) c c' : (forall x, T x -> T' x) -> (forall x, N x -> N' x) -> TT T N c c' -> TT T' N' c c'.
Proof.
  intros HT HN H t' Hin. destruct (H t' Hin) as [(t & H1 & Ei & Le & W)|Hn]; [|right; auto].
  left. exists t. repeat split; auto. intros E Hw. destruct (W E Hw); auto.
Qed.

(** One task replaced; the old one is found among the hypotheses. *)
Ltac tt_pre := repeat match goal with H : get_task _ _ = Ok _ |- _ => apply get_task_find in H end.
Ltac tt_set :=
  tt_pre;
  match goal with
  | H : find_task _ _ = Some ?t |- TT _ _ _ _ =>
      solve [ eapply (TT_set _ _ _ _ _ t);
              [ reflexivity | exact (find_in _ _ _ H) | reflexivity
              | cbn [t_inst with_state with_inst with_crash with_consumers with_deps]; lia
              | cbn [t_inst t_state t_id is_waiting with_state with_inst with_crash with_consumers with_deps]; intros;
                first [ discriminate | lia | left; assumption | left; unfold is_waiting; match goal with E : t_state _ = _ |- _ => rewrite E; reflexivity end | auto ] ] ]
  end.

Section Pass.
Variables T N : tid -> Prop.
Notation TT_refl := (TT_refl T N).
Notation TT_trans := (TT_trans T N).
Notation TT_tasks := (TT_tasks T N).
Lemma retract_states_TT ids : forall c acc c' acc', retract_states c ids acc = Ok (c', acc') -> TT T N c c'.
Proof.
  induction ids as [|id r IH]; cbn [retract_states]; intros c acc c' acc' H; [inversion H; subst; apply TT_refl|].
  apply bind_ok in H. destruct H as (t & Ht & H).
  destruct (t_state t) eqn:Est; try discriminate.
  apply bind_ok in H. destruct H as (wk & Hw & H). apply bind_ok in H. destruct H as (wk' & ?X & H).
  eapply TT_trans; [|eapply IH; exact H].
  tt_set.
Qed.

Lemma process_retracted_TT s r s' : process_retracted s r = Ok s' -> TT T N (core_of s) (core_of s').
Proof.
  unfold process_retracted. intros H. destruct r; [inversion H; subst; apply TT_refl|].
  apply bind_ok in H. destruct H as ([c' groups] & H1 & H). rewrite (send_all_core _ _ _ H).
  eapply retract_states_TT; exact H1.
Qed.

Lemma cancel_release_TT ids : forall s tu ru s' tu' ru', cancel_release s ids tu ru = Ok (s', tu', ru') -> TT T N (core_of s) (core_of s').
Proof.
  induction ids as [|id r IH]; intros s tu ru s' tu' ru' H; [cbn [cancel_release] in H; inversion H; subst; apply TT_refl|].
  destruct (cancel_release_step _ _ _ _ _ _ H) as [[_ H1] | (t & rq & c1 & s1 & tu1 & ru1 & _ & _ & _ & Hrel & E & H1)]; [eapply IH; exact H1|].
  eapply TT_trans; [|eapply IH; exact H1]. apply TT_tasks. destruct E as [-> | ->]; exact (released_tasks _ _ _ _ _ Hrel).
Qed.

Lemma remove_task_TT c id c' stt : remove_task c id = Ok (c', stt) -> TT T N c c'.
Proof.
  intros H. unfold remove_task in H. destruct (find_task (c_tasks c) id) as [t|]; [|discriminate].
  assert (R0 : forall c1, c_tasks c1 = del_task (c_tasks c) id -> TT T N c c1).
  { intros c1 E. apply TT_sub. intros t' Hin. rewrite E in Hin. exists t'. split; [eapply del_task_in; exact Hin | auto]. }
  destruct (t_state t); try (inversion H; subst; apply R0; reflexivity).
  apply bind_ok in H. destruct H as (c2 & H2 & H).
  assert (T2 : c_tasks c2 = del_task (c_tasks c) id).
  { destruct (N.eqb unfinished_deps 0); [inv_binds H2|]; inversion H2; subst; auto. }
  destruct (N.ltb 0 unfinished_deps); [|inversion H; subst; apply R0; assumption].
  apply bind_ok in H. destruct H as (ts & Hr & H). inversion H; subst.
  eapply TT_trans; [apply (R0 c2); assumption|].
  apply TT_sub. intros t' Hin. eapply remove_consumer_from_in; [exact Hr | exact Hin].
Qed.

Lemma remove_tasks_batched_TT ids : forall c c', remove_tasks_batched c ids = Ok c' -> TT T N c c'.
Proof.
  induction ids as [|id r IH]; cbn [remove_tasks_batched]; intros c c' H; [inversion H; subst; apply TT_refl|].
  apply bind_ok in H. destruct H as ([c1 stt] & H1 & H). eapply TT_trans; [eapply remove_task_TT; exact H1 | eapply IH; exact H].
Qed.

Lemma remove_waiting_consumers_TT l : forall c c', remove_waiting_consumers c l = Ok c' -> TT T N c c'.
Proof.
  induction l as [|id r IH]; cbn [remove_waiting_consumers]; intros c c' H; [inversion H; subst; apply TT_refl|].
  apply bind_ok in H. destruct H as ([c1 stt] & H1 & H). destruct stt; try discriminate.
  eapply TT_trans; [eapply remove_task_TT; exact H1 | eapply IH; exact H].
Qed.

Lemma on_cancel_tasks_TT s ids s' : on_cancel_tasks s ids = Ok s' -> TT T N (core_of s) (core_of s').
Proof.
  intros H. unfold on_cancel_tasks in H.
  apply bind_ok in H. destruct H as ([[s1 tu] ru] & H1 & H). apply bind_ok in H. destruct H as (c' & H2 & H).
  rewrite (send_all_core _ _ _ H).
  eapply TT_trans; [eapply cancel_release_TT; exact H1 | eapply remove_tasks_batched_TT; exact H2].
Qed.

Lemma task_failed_TT s w id k s' : task_failed s w id k = Ok s' -> TT T N (core_of s) (core_of s').
Proof.
  intros H. unfold task_failed in H.
  destruct (find_task (c_tasks (core_of s)) id) as [t|]; [|inversion H; subst; apply TT_refl].
  apply bind_ok in H. destruct H as (rq & ?X & H). apply bind_ok in H. destruct H as (c1 & H1 & H).
  assert (R1 : TT T N (core_of s) c1).
  { destruct (failed_release _ _ _ _ _ _ H1) as [Hrel | (-> & _)]; [apply TT_tasks; exact (released_tasks _ _ _ _ _ Hrel) | apply TT_refl]. }
  apply bind_ok in H. destruct H as (csm & ?X & H).
  apply bind_ok in H. destruct H as (c2 & H2 & H).
  apply bind_ok in H. destruct H as ([c3 stt] & H3 & H).
  apply bind_ok in H. destruct H as (u & ?X & H).
  apply bind_ok in H. destruct H as ([s1 cancel_ids] & H4 & H).
  pose proof (process_task_failed_core _ _ _ _ _ _ H4) as C4. cbn in C4.
  assert (R3 : TT T N (core_of s) (core_of s1)).
  { rewrite C4. eapply TT_trans; [exact R1|]. eapply TT_trans; [eapply remove_waiting_consumers_TT; exact H2 | eapply remove_task_TT; exact H3]. }
  destruct cancel_ids; [inversion H; subst; exact R3|].
  eapply TT_trans; [exact R3 | eapply on_cancel_tasks_TT; exact H].
Qed.

Lemma wake_consumers_TT csm : forall c ret c' ret', wake_consumers c csm ret = Ok (c', ret') -> TT T N c c'.
Proof.
  induction csm as [|x r IH]; cbn [wake_consumers]; intros c ret c' ret' H; [inversion H; subst; apply TT_refl|].
  apply bind_ok in H. destruct H as (t & Ht & H).
  destruct (t_state t) as [n| | | | | |] eqn:Est; try discriminate. destruct (N.eqb n 0); [discriminate|].
  assert (R1 : forall qs, TT T N c (with_queues (upd_task c (with_state t (Waiting (n - 1)))) qs)).
  { intros qs. tt_set. }
  destruct (N.eqb (n - 1) 0).
  - apply bind_ok in H. destruct H as ([qs rt] & ?X & H). eapply TT_trans; [apply (R1 qs) | eapply IH; exact H].
  - eapply TT_trans; [apply (R1 (c_queues c)) | eapply IH; exact H].
Qed.

Lemma task_finished_TT s w id s' b : task_finished s w id = Ok (s', b) -> TT T N (core_of s) (core_of s').
Proof.
  intros H. unfold task_finished in H.
  destruct (find_task (c_tasks (core_of s)) id) as [t|] eqn:Ef; [|inversion H; subst; apply TT_refl].
  apply bind_ok in H. destruct H as (rq & ?X & H). apply bind_ok in H. destruct H as (c1 & H1 & H).
  pose proof (released_tasks _ _ _ _ _ (finished_release _ _ _ _ _ _ H1)) as Et.
  cbv zeta in H.
  apply bind_ok in H. destruct H as (s1 & Hf & H).
  destruct (process_task_finished_active _ _ _ Hf) as [C1 _]. unfold core_same in C1. cbn in C1.
  apply bind_ok in H. destruct H as ([c3 retracted] & Hw & H).
  apply bind_ok in H. destruct H as (s2 & Hr & H).
  apply bind_ok in H. destruct H as ([c4 stt] & Hrm & H).
  destruct stt; try discriminate. inversion H; subst.
  change (TT T N (core_of s) c4).
  eapply TT_trans; [apply (TT_tasks (core_of s) c1 Et)|].
  eapply TT_trans; [eapply (TT_set T N c1 (upd_task c1 (with_state t Finished)) (with_state t Finished) t);
    [reflexivity | rewrite Et; exact (find_in _ _ _ Ef) | reflexivity | cbn; lia | cbn; discriminate]|].
  rewrite <- C1. eapply TT_trans; [eapply wake_consumers_TT; exact Hw|].
  eapply TT_trans; [exact (process_retracted_TT (st_core s1 c3) _ _ Hr) | eapply remove_task_TT; exact Hrm].
Qed.
End Pass.
