(** Protocol invariant, part 9: [on_retract_response] as a transition of [SP]. *)
From HQ Require Import Base.Prelude Cluster.Types Cluster.Core Cluster.Reactor Cluster.Worker Cluster.Server Cluster.Sys Cluster.ProofsJob Cluster.ProofsMore Cluster.ProofsTerminal Cluster.ProofsStep Cluster.BijBase Cluster.BijHq Cluster.NoPanicU0 Cluster.NoPanicU1 Cluster.NoPanicU2 Cluster.NoPanicU6 Cluster.NoPanicU7 Cluster.NoPanicU8.
From HQ Require Import Cluster.ModelFacts.
From Coq Require Import ZArith Lia Sorting.Sorted.
Local Open Scope N_scope.

Definition ctk (c : core) (ir : tid * N) : ctask :=
  match find_task (c_tasks c) (fst ir) with
  | Some t => ctask_of t (Some (snd ir)) []
  | None => mkCT (fst ir) 0 (Some (snd ir)) 0 false []
  end.
Definition pdc (c : core) (acc : list (wid * list (tid * N))) : list (wid * dmsg) := pg (fun l => DCompute (map (ctk c) l)) acc.
Definition cit (y : tid) (l : list (tid * N)) : list ditem := flat_map (fun ir => sel (fst ir) y (IDC (Some (snd ir)) false)) l.

Lemma ctk_id c ir : ct_id (ctk c ir) = fst ir.
Proof.
  unfold ctk. destruct (find_task (c_tasks c) (fst ir)) as [t|] eqn:E; [|reflexivity]. cbn. exact (proj2 (find_task_some _ _ _ E)).
Qed.
Lemma ctk_rv c ir : ct_rv (ctk c ir) = Some (snd ir).
Proof. unfold ctk. destruct (find_task (c_tasks c) (fst ir)); reflexivity. Qed.
Lemma ctk_nodes c ir : ct_nodes (ctk c ir) = [].
Proof. unfold ctk. destruct (find_task (c_tasks c) (fst ir)); reflexivity. Qed.

Lemma ctk_items c y l : ditems_msg y (DCompute (map (ctk c) l)) = cit y l.
Proof.
  cbn [ditems_msg]. unfold cit. induction l as [|ir r IH]; [reflexivity|]. cbn [map flat_map]. rewrite ctk_id, ctk_rv, ctk_nodes, IH. reflexivity.
Qed.
Lemma ctk_tids c l : dmsg_tids (DCompute (map (ctk c) l)) = map fst l.
Proof. cbn [dmsg_tids]. rewrite map_map. apply map_ext. intros ir. apply ctk_id. Qed.

Lemma ctasks_of_ctk c l cts : ctasks_of c l = Ok cts -> cts = map (ctk c) l.
Proof.
  revert cts. induction l as [|[id rv] r IH]; cbn [ctasks_of]; intros cts H; [inversion H; reflexivity|].
  apply bind_ok in H. destruct H as (t & Ht & H). apply bind_ok in H. destruct H as (rest & Hr & H). inversion H; subst.
  cbn [map]. rewrite (IH _ Hr). f_equal. unfold ctk, get_task in *. cbn [fst snd]. destruct (find_task (c_tasks c) id); inversion Ht; reflexivity.
Qed.

Lemma pdc_items c acc w y : NoDup (map fst acc) ->
  ditems y (msgs_for w (pdc c acc)) = match glook w acc with Some l => cit y l | None => [] end.
Proof.
  intros Hn. unfold pdc. rewrite (msgs_for_pg _ w acc Hn). destruct (glook w acc) as [l|]; [|reflexivity].
  cbn [ditems flat_map]. rewrite app_nil_r. apply ctk_items.
Qed.
Lemma pdc_tids c acc w y : NoDup (map fst acc) ->
  (In y (flat_map dmsg_tids (msgs_for w (pdc c acc))) <-> match glook w acc with Some l => In y (map fst l) | None => False end).
Proof.
  intros Hn. unfold pdc. rewrite (msgs_for_pg _ w acc Hn). destruct (glook w acc) as [l|]; [|cbn; tauto].
  cbn [flat_map]. rewrite app_nil_r, ctk_tids. tauto.
Qed.
Lemma cit_snoc y l id rv : cit y (l ++ [(id, rv)]) = cit y l ++ sel id y (IDC (Some rv) false).
Proof. unfold cit. rewrite flat_map_app. cbn [flat_map fst snd]. rewrite app_nil_r. reflexivity. Qed.

Lemma pdc_add_items c c1 acc tg id rv w y : NoDup (map fst acc) ->
  ditems y (msgs_for w (pdc c1 (group_add tg (id, rv) acc))) =
  ditems y (msgs_for w (pdc c acc)) ++ (if N.eqb tg w then sel id y (IDC (Some rv) false) else []).
Proof.
  intros Hn. rewrite (pdc_items c1 _ w y (group_add_nodup tg (id, rv) acc Hn)), (pdc_items c acc w y Hn), glook_group_add.
  destruct (N.eqb tg w) eqn:E; [|rewrite app_nil_r; reflexivity]. apply N.eqb_eq in E. subst w.
  destruct (glook tg acc) as [l|]; [apply cit_snoc | rewrite cit_snoc; reflexivity].
Qed.

(** the groups name live tasks with a known request class and variant 0 *)
Definition GOK (c : core) (acc : list (wid * list (tid * N))) : Prop :=
  forall tg l ir, In (tg, l) acc -> In ir l ->
    snd ir = 0 /\ exists t, find_task (c_tasks c) (fst ir) = Some t /\ (N.to_nat (t_rq t) < length (c_rqs c))%nat.

Lemma glook_in {A} w (acc : list (wid * list A)) l : glook w acc = Some l -> In (w, l) acc.
Proof.
  induction acc as [|[k v] r IH]; cbn [glook]; [discriminate|]. destruct (N.eqb k w) eqn:E.
  - apply N.eqb_eq in E. subst k. intros H; inversion H; subst. left. reflexivity.
  - intros H. right. apply IH. exact H.
Qed.

Lemma group_add_in {A} w (x : A) acc tg l : In (tg, l) (group_add w x acc) ->
  (In (tg, l) acc) \/ (tg = w /\ exists l0, l = l0 ++ [x] /\ (l0 = [] \/ In (w, l0) acc)).
Proof.
  induction acc as [|[k v] r IH]; cbn [group_add In].
  - intros [H|[]]. inversion H; subst. right. split; [reflexivity|]. exists []. auto.
  - destruct (N.eqb k w) eqn:E.
    + apply N.eqb_eq in E. subst k. intros [H|H]; [|left; right; exact H]. inversion H; subst. right. split; [reflexivity|]. exists v. split; [reflexivity|]. right. left. reflexivity.
    + intros [H|H]; [left; left; exact H|]. destruct (IH H) as [H1|(E1 & l0 & E2 & [E3|E3])]; [left; right; exact H1 | |].
      * right. split; [exact E1|]. exists l0. auto.
      * right. split; [exact E1|]. exists l0. split; [exact E2|]. right. right. exact E3.
Qed.

Lemma down_ok_prefix rqs a : forall b n, down_ok rqs n (a ++ b) = true -> down_ok rqs n a = true.
Proof.
  induction a as [|m r IH]; intros b n H; [reflexivity|]. cbn [app] in H. destruct m; cbn [down_ok] in *; try (eapply IH; exact H).
  - apply andb_true_iff in H. destruct H as [H1 H2]. rewrite H1. eapply IH; exact H2.
  - apply andb_true_iff in H. destruct H as [H1 H2]. rewrite H1. eapply IH; exact H2.
Qed.
Lemma down_ok_snoc_compute rqs cts a : forall n, down_ok rqs n (a ++ [DCompute cts]) =
  down_ok rqs n a && forallb (ct_ok rqs (n + N.of_nat (length (newrq_defs a)))) cts.
Proof.
  induction a as [|m r IH]; intros n; cbn [app].
  - cbn [down_ok newrq_defs flat_map length]. rewrite N.add_0_r, andb_true_r. reflexivity.
  - destruct m; cbn [down_ok]; rewrite ?IH; unfold newrq_defs; cbn [flat_map app length]; fold (newrq_defs r); rewrite ?andb_assoc; try reflexivity.
    f_equal. f_equal. f_equal. lia.
Qed.

Lemma ctk_ok c ir : snd ir = 0 -> (exists t, find_task (c_tasks c) (fst ir) = Some t /\ (N.to_nat (t_rq t) < length (c_rqs c))%nat) ->
  ct_ok (c_rqs c) (N.of_nat (length (c_rqs c))) (ctk c ir) = true.
Proof.
  intros Hrv (t & Ht & Hlt). unfold ct_ok, ctk. rewrite Ht. cbn [ctask_of ct_rv ct_rq ct_nodes is_nil orb]. rewrite Hrv, N.eqb_refl, andb_true_r. cbn [andb].
  apply N.ltb_lt. lia.
Qed.

Lemma tab_pending X s pum pd w p msgs' :
  SP X s pum pd -> find_proc (s_procs (fst s)) w = Some p -> newrq_defs (msgs_for w pd) = [] ->
  (msgs' = [] \/ exists cts, msgs' = [DCompute cts] /\ forallb (ct_ok (c_rqs (core_of s)) (N.of_nat (length (c_rqs (core_of s))))) cts = true) ->
  down_ok (c_rqs (core_of s)) (N.of_nat (length (p_rqs p))) (p_down p ++ msgs') = true /\ newrq_defs msgs' = [].
Proof.
  intros HS Hp Hn Hm. pose proof (down_ok_prefix _ _ _ _ (sp_down _ _ _ _ HS _ _ Hp)) as Hd.
  pose proof (sp_tab _ _ _ _ HS _ _ Hp) as Ht. rewrite newrq_app, Hn, app_nil_r in Ht.
  destruct Hm as [->|(cts & -> & Hc)]; [rewrite app_nil_r; auto|]. split; [|reflexivity].
  rewrite down_ok_snoc_compute, Hd. cbn [andb].
  replace (N.of_nat (length (p_rqs p)) + N.of_nat (length (newrq_defs (p_down p)))) with (N.of_nat (length (c_rqs (core_of s)))); [exact Hc|].
  rewrite <- Ht, app_length. lia.
Qed.

Lemma pdc_newrq c acc w : NoDup (map fst acc) -> newrq_defs (msgs_for w (pdc c acc)) = [].
Proof. intros Hn. unfold pdc. rewrite (msgs_for_pg _ w acc Hn). destruct (glook w acc); reflexivity. Qed.

Lemma pdc_msgs c acc w : NoDup (map fst acc) -> GOK c acc ->
  msgs_for w (pdc c acc) = [] \/ exists cts, msgs_for w (pdc c acc) = [DCompute cts] /\ forallb (ct_ok (c_rqs c) (N.of_nat (length (c_rqs c)))) cts = true.
Proof.
  intros Hn Hg. unfold pdc. rewrite (msgs_for_pg _ w acc Hn). destruct (glook w acc) as [l|] eqn:E; [right | left; reflexivity].
  eexists. split; [reflexivity|]. apply forallb_forall. intros ct Hct. apply in_map_iff in Hct. destruct Hct as (ir & <- & Hir).
  destruct (Hg _ _ _ (glook_in _ _ _ E) Hir) as [A B]. apply ctk_ok; assumption.
Qed.

Definition pum_rr (w0 : wid) (ids : list tid) : wid -> list umsg := fun w => if N.eqb w w0 then [URetractResponse ids] else [].
Lemma pum_rr_items w0 id r w y : uitems y (pum_rr w0 (id :: r) w) = (if N.eqb w w0 then sel id y IRR else []) ++ uitems y (pum_rr w0 r w).
Proof. unfold pum_rr. destruct (N.eqb w w0); [|reflexivity]. cbn [uitems flat_map uitems_msg]. rewrite !app_nil_r. reflexivity. Qed.
Lemma pum_rr_tids w0 id r w y : In y (flat_map umsg_tids (pum_rr w0 r w)) -> In y (flat_map umsg_tids (pum_rr w0 (id :: r) w)).
Proof. unfold pum_rr. destruct (N.eqb w w0); [|auto]. cbn [flat_map umsg_tids]. rewrite !app_nil_r. intros H. right. exact H. Qed.
Lemma pum_rr_ne w0 a b w : pum_rr w0 a w <> [] -> pum_rr w0 b w <> [].
Proof. unfold pum_rr. destruct (N.eqb w w0); [discriminate | auto]. Qed.

Lemma find_redirect_in rs id v : find_redirect rs id = Some v -> In (id, v) rs.
Proof.
  induction rs as [|[k v0] r IH]; cbn [find_redirect]; [discriminate|].
  destruct (tid_eqb id k) eqn:E; [apply tid_eqb_eq in E; subst; intros H; inversion H; left; reflexivity | intros H; right; apply IH; exact H].
Qed.

Lemma GOK_frame c c' acc : c_rqs c' = c_rqs c ->
  (forall y t, find_task (c_tasks c) y = Some t -> exists t', find_task (c_tasks c') y = Some t' /\ t_rq t' = t_rq t) ->
  GOK c acc -> GOK c' acc.
Proof.
  intros Er Hf Hg tg l ir H1 H2. destruct (Hg _ _ _ H1 H2) as (A & t & B & C). split; [exact A|].
  destruct (Hf _ _ B) as (t' & B' & E). exists t'. rewrite Er, E. auto.
Qed.

Lemma ctk_frame c c' : (forall y, option_map (fun t => (t_id t, t_inst t, t_rq t, t_tlim t)) (find_task (c_tasks c') y)
                                  = option_map (fun t => (t_id t, t_inst t, t_rq t, t_tlim t)) (find_task (c_tasks c) y)) ->
  forall ir, ctk c' ir = ctk c ir.
Proof.
  intros H ir. unfold ctk. specialize (H (fst ir)). destruct (find_task (c_tasks c') (fst ir)) as [t'|], (find_task (c_tasks c) (fst ir)) as [t|]; cbn in H; try discriminate; [|reflexivity].
  inversion H. unfold ctask_of. congruence.
Qed.

Lemma rr_head X s w id r pd t p :
  SP X s (pum_rr w (id :: r)) pd -> find_task (c_tasks (core_of s)) id = Some t -> X id = false ->
  find_proc (s_procs (fst s)) w = Some p ->
  t_state t = Retracting w /\
  lang VN (uitems id (pum_rr w r w ++ p_up p)) (local p id) (ditems id (p_down p ++ msgs_for w pd)) = true.
Proof.
  intros HS Ef HX Hp. pose proof (sp_words _ _ _ _ HS w p id t Hp Ef HX) as Hl.
  rewrite uitems_app, pum_rr_items, N.eqb_refl, sel_same, <- app_assoc, <- uitems_app in Hl. cbn [app] in Hl.
  destruct (LS_rr _ _ _ _ Hl) as [Ev Hl2]. split; [eapply view_VT; exact Ev | exact Hl2].
Qed.

Lemma pum_rr_proc X s w ids pd : SP X s (pum_rr w ids) pd -> exists p, find_proc (s_procs (fst s)) w = Some p.
Proof.
  intros HS. pose proof (sp_pum _ _ _ _ HS w) as H. unfold pum_rr in H. rewrite N.eqb_refl in H.
  destruct (find_proc (s_procs (fst s)) w) as [p|]; [eauto | exfalso; apply H; [discriminate | reflexivity]].
Qed.

Lemma retract_valid_inv c w id : retract_valid c w id = true -> exists t, find_task (c_tasks c) id = Some t /\ t_state t = Retracting w.
Proof.
  unfold retract_valid. destruct (find_task (c_tasks c) id) as [t|]; [|discriminate].
  destruct (t_state t) eqn:Est; try discriminate. intros E. apply N.eqb_eq in E. subst. exists t. split; [reflexivity | exact Est].
Qed.
Lemma rrs_skip_eq c w id r acc : retract_valid c w id = false ->
  retract_response_states c w (id :: r) acc = retract_response_states c w r acc.
Proof.
  unfold retract_valid. cbn [retract_response_states]. destruct (find_task (c_tasks c) id) as [t|]; [|reflexivity].
  destruct (t_state t); try reflexivity. intros ->. reflexivity.
Qed.

(** An entry that is passed over names an absent task: a present one would be in retraction from
    [w], since the response is the next item of its word. *)
Lemma rr_skip s w id r pd : SP x0 s (pum_rr w (id :: r)) pd -> retract_valid (core_of s) w id = false -> SP x0 s (pum_rr w r) pd.
Proof.
  intros HS Hv. destruct (pum_rr_proc _ _ _ _ _ HS) as (p & Hp). unfold retract_valid in Hv.
  destruct (find_task (c_tasks (core_of s)) id) as [t|] eqn:Ef.
  - destruct (rr_head _ _ _ _ _ _ _ _ HS Ef eq_refl Hp) as [E _]. rewrite E, N.eqb_refl in Hv. discriminate.
  - apply (SP_show_absent x0 _ _ _ id); [|reflexivity | exact Ef].
    apply (SP_hide_pum x0 _ (pum_rr w (id :: r)) _ _ id HS).
    + intros w' y Hy. rewrite pum_rr_items, sel_other by congruence. destruct (N.eqb w' w); reflexivity.
    + intros w' y. apply pum_rr_tids.
    + intros w'. apply pum_rr_ne.
Qed.

Lemma GOK_add c acc tg id t : GOK c acc -> find_task (c_tasks c) id = Some t -> (N.to_nat (t_rq t) < length (c_rqs c))%nat ->
  GOK c (group_add tg (id, 0) acc).
Proof.
  intros Hg Ef Hlt tg0 l ir H1 H2. destruct (group_add_in _ _ _ _ _ H1) as [H3|(-> & l0 & -> & Hl0)]; [eapply Hg; eassumption|].
  apply in_app_iff in H2. destruct H2 as [H2|[<-|[]]].
  - destruct Hl0 as [->|Hl0]; [destruct H2 | eapply Hg; eassumption].
  - split; [reflexivity|]. exists t. split; assumption.
Qed.

(** A valid entry: the task [id], in retraction from [w], goes to [Assigned tg 0] and joins the
    pending group of [tg] when a redirect was waiting for it ([o = Some tg]), else back to
    [Waiting 0].  [c0] is the core with the redirect table already updated. *)
Lemma rr_step s w id r c acc t o c0 :
  SP x0 (st_core s c) (pum_rr w (id :: r)) (pdc c acc) -> NoDup (map fst acc) -> GOK c acc ->
  find_task (c_tasks c) id = Some t -> t_state t = Retracting w ->
  c_tasks c0 = c_tasks c -> c_rqs c0 = c_rqs c -> (forall r0, In r0 (c_redirects c0) -> In r0 (c_redirects c)) ->
  let st' := match o with Some tg => Assigned tg 0 | None => Waiting 0 end in
  let c1 := upd_task c0 (with_state t st') in
  let acc1 := match o with Some tg => group_add tg (id, 0) acc | None => acc end in
  SP x0 (st_core s c1) (pum_rr w r) (pdc c1 acc1) /\ NoDup (map fst acc1) /\ GOK c1 acc1.
Proof.
  intros HS Hn Hg Ef Est Et Erq0 Hred st' c1 acc1.
  destruct (find_task_some _ _ _ Ef) as [_ Eid]. pose proof (Erq0 : c_rqs c1 = c_rqs c) as Erq.
  assert (Hfind : forall y, find_task (c_tasks c1) y = if tid_eqb y id then Some (with_state t st') else find_task (c_tasks c) y).
  { intros y. unfold c1. rewrite find_upd_task, Et. cbn [with_state t_id]. rewrite Eid. reflexivity. }
  assert (Hcs1 : tsorted c1).
  { unfold tsorted, c1. cbn [upd_task with_tasks c_tasks]. rewrite Et. apply set_task_sorted. exact (sp_cs _ _ _ _ HS). }
  pose proof (sp_mnt _ _ _ _ HS _ _ Ef eq_refl) as Hm. unfold mn_task_ok in Hm. rewrite Est in Hm. change (core_of (st_core s c)) with c in Hm.
  assert (Hrqlt : (N.to_nat (t_rq t) < length (c_rqs c))%nat).
  { destruct (nth_error (c_rqs c) (N.to_nat (t_rq t))) eqn:E; [|discriminate]. apply nth_error_Some. congruence. }
  assert (Hn1 : NoDup (map fst acc1)) by (unfold acc1; destruct o; [apply group_add_nodup|]; exact Hn).
  assert (Hg1 : GOK c1 acc1).
  { assert (G0 : GOK c1 acc).
    { eapply GOK_frame; [exact Erq | | exact Hg]. intros y ty Hy. rewrite Hfind. destruct (tid_eqb y id) eqn:E; [|eauto].
      apply tid_eqb_eq in E. subst y. rewrite Ef in Hy. injection Hy as <-. eexists. split; reflexivity. }
    unfold acc1. destruct o as [tg|]; [|exact G0]. apply (GOK_add c1 acc tg id (with_state t st') G0).
    - rewrite Hfind, tid_eqb_refl. reflexivity.
    - cbn [with_state t_rq]. rewrite Erq. exact Hrqlt. }
  split; [|split; assumption].
  assert (Hitems : forall w' y, ditems y (msgs_for w' (pdc c1 acc1)) =
                                ditems y (msgs_for w' (pdc c acc)) ++ match o with Some tg => if N.eqb tg w' then sel id y (IDC (Some 0) false) else [] | None => [] end).
  { intros w' y. unfold acc1. destruct o as [tg|]; [apply pdc_add_items; exact Hn|].
    rewrite app_nil_r, (pdc_items c1 acc w' y Hn), (pdc_items c acc w' y Hn). reflexivity. }
  change (st_core s c1) with (mkSys c1 (hq_of (st_core s c)) (s_procs (fst (st_core s c))), snd (st_core s c)).
  apply (SP_gen (fun y => tid_eqb y id) x0 x0 (st_core s c) (pum_rr w (id :: r)) (pdc c acc) c1 _ _ (pum_rr w r) (pdc c1 acc1) HS Hcs1 Erq).
  - intros r0 Hr0. apply (sp_rvr _ _ _ _ HS). apply Hred. exact Hr0.
  - intros y ty E Hy _. rewrite Hfind, E in Hy. exists ty. repeat split; assumption.
  - intros w' y E. apply tid_eqb_neq in E. split.
    + rewrite pum_rr_items, sel_other by congruence. destruct (N.eqb w' w); reflexivity.
    + rewrite Hitems. destruct o as [tg|]; [destruct (N.eqb tg w'); rewrite ?sel_other by congruence|]; apply app_nil_r.
  - auto.
  - intros y ty Hy. rewrite Hfind in Hy. change (core_of (st_core s c)) with c. destruct (tid_eqb y id) eqn:E; [apply tid_eqb_eq in E; subst y|]; congruence.
  - intros w' p' y Hp' [Hy|Hy].
    + eapply (sp_seen _ _ _ _ HS); [exact Hp' | right; left; apply pum_rr_tids; exact Hy].
    + (* a task named by a pending group is in the core, hence seen *)
      apply (pdc_tids c1 acc1 w' y Hn1) in Hy. destruct (glook w' acc1) as [l|] eqn:El; [|destruct Hy].
      apply in_map_iff in Hy. destruct Hy as (ir & <- & Hir). destruct (Hg1 _ _ _ (glook_in _ _ _ El) Hir) as (_ & t1 & Ht1 & _).
      rewrite Hfind in Ht1. destruct (tid_eqb (fst ir) id) eqn:E; [apply tid_eqb_eq in E; rewrite E; eapply (sp_pres _ _ _ _ HS); exact Ef | eapply (sp_pres _ _ _ _ HS); exact Ht1].
  - intros w' p' Hp'. rewrite (pdc_newrq c acc w' Hn), Erq. change c with (core_of (st_core s c)) at 1.
    apply (tab_pending x0 (st_core s c) _ _ w' p' _ HS Hp' (pdc_newrq c acc w' Hn)).
    destruct (pdc_msgs c1 acc1 w' Hn1 Hg1) as [E|(cts & E & Hc)]; [left; exact E | right; exists cts; split; [exact E|]].
    change (core_of (st_core s c)) with c. rewrite <- Erq. exact Hc.
  - intros w'. apply pum_rr_ne.
  - intros x tx E Hx _. apply tid_eqb_eq in E. subst x. rewrite Hfind, tid_eqb_refl in Hx. injection Hx as <-.
    change (hq_of (st_core s c)) with (hq_of s) in *.
    split; [exact (sp_act _ _ _ _ HS _ _ Ef eq_refl)|]. split; [|split; [|split]].
    + unfold mn_task_ok. cbn [with_state t_state t_rq]. rewrite Erq. destruct o; [exact Hm | reflexivity].
    + pose proof (sp_jr _ _ _ _ HS _ _ Ef eq_refl) as J. unfold jr_ok in *. rewrite Est in J. cbn [with_state t_state t_id].
      destruct o; exact J.
    + intros w1 rv1 E1. cbn [with_state t_state] in E1. destruct o; [injection E1 as _ <-; reflexivity | discriminate].
    + intros w' p' Hp'. cbn [with_state t_state].
      pose proof (sp_words _ _ _ _ HS w' p' id t Hp' Ef eq_refl) as Hw. rewrite Est in Hw. cbn [view_of] in Hw.
      rewrite uitems_app, pum_rr_items, sel_same in Hw. rewrite uitems_app.
      assert (HVN : lang VN (uitems id (pum_rr w r w') ++ uitems id (p_up p')) (local p' id) (ditems id (p_down p' ++ msgs_for w' (pdc c acc))) = true).
      { destruct (N.eqb w' w) eqn:E.
        - apply N.eqb_eq in E. subst w'. rewrite N.eqb_refl in Hw. cbn [app] in Hw. exact (proj2 (LS_rr _ _ _ _ Hw)).
        - rewrite (N.eqb_sym w w'), E in Hw. cbn [app] in Hw. exact Hw. }
      rewrite ditems_app, Hitems.
      unfold st'. destruct o as [tg|]; cbn [view_of].
      * rewrite sel_same. destruct (N.eqb tg w'); [rewrite app_assoc, <- ditems_app; apply LA_asg; exact HVN | rewrite app_nil_r, <- ditems_app; exact HVN].
      * rewrite app_nil_r, <- ditems_app. exact HVN.
Qed.

Lemma rrs_SP s w ids : forall c acc c' acc',
  SP x0 (st_core s c) (pum_rr w ids) (pdc c acc) -> NoDup (map fst acc) -> GOK c acc ->
  retract_response_states c w ids acc = (c', acc') ->
  SP x0 (st_core s c') (pum_rr w []) (pdc c' acc') /\ NoDup (map fst acc') /\ GOK c' acc'.
Proof.
  induction ids as [|id r IH]; intros c acc c' acc' HS Hn Hg H; [injection H as <- <-; auto|].
  destruct (retract_valid c w id) eqn:Ev.
  - destruct (retract_valid_inv _ _ _ Ev) as (t & Ef & Est).
    cbn [retract_response_states] in H. rewrite Ef, Est, N.eqb_refl in H.
    destruct (find_redirect (c_redirects c) id) as [[tg rv]|] eqn:Er.
    + pose proof (sp_rvr _ _ _ _ HS _ (find_redirect_in _ _ _ Er)) as Erv. cbn [snd] in Erv. subst rv.
      destruct (rr_step s w id r c acc t (Some tg) (with_redirects c (del_redirect (c_redirects c) id)) HS Hn Hg Ef Est eq_refl eq_refl) as (S1 & N1 & G1);
        [intros r0; apply del_redirect_in | exact (IH _ _ _ _ S1 N1 G1 H)].
    + destruct (rr_step s w id r c acc t None c HS Hn Hg Ef Est eq_refl eq_refl) as (S1 & N1 & G1); [auto | exact (IH _ _ _ _ S1 N1 G1 H)].
  - rewrite (rrs_skip_eq _ _ _ _ _ Ev) in H. apply (IH c acc c' acc'); [exact (rr_skip _ w id r _ HS Ev) | exact Hn | exact Hg | exact H].
Qed.

Lemma send_redirected_SP X pum gs : forall s s', SP X s pum (pdc (core_of s) gs) -> send_redirected s gs = Ok s' -> SP X s' pum [].
Proof.
  induction gs as [|[tg ts] r IH]; cbn [send_redirected]; intros s s' HS H; [inversion H; subst; exact HS|].
  apply bind_ok in H. destruct H as (cts & Hc & H). apply bind_ok in H. destruct H as (s1 & H1 & H).
  rewrite (ctasks_of_ctk _ _ _ Hc) in H1. apply (IH s1 s'); [|exact H].
  rewrite (send_worker_core _ _ _ _ H1). eapply SP_send; [|exact H1]. exact HS.
Qed.

Lemma SP_pum_clear X s pum pd : SP X s pum pd -> (forall w y, uitems y (pum w) = []) -> SP X s no_pum pd.
Proof.
  intros HS Hi.
  apply (SP_ext _ (mkSys (core_of s) (hq_of s) (s_procs (fst s)), snd s) s); [|reflexivity|reflexivity|reflexivity].
  apply (SP_gen (fun _ => false) X X s pum pd (core_of s) (hq_of s) (snd s) no_pum pd HS (sp_cs _ _ _ _ HS) eq_refl (sp_rvr _ _ _ _ HS)).
  - intros y t' _ Hy HX. exists t'. repeat split; assumption.
  - intros w y _. split; [rewrite Hi; reflexivity | reflexivity].
  - auto.
  - intros y t' Hy. congruence.
  - intros w p y Hp [[]|Hy]. eapply (sp_seen _ _ _ _ HS); [exact Hp | right; right; exact Hy].
  - intros w p Hp. split; [exact (sp_down _ _ _ _ HS _ _ Hp) | reflexivity].
  - intros w Hw. exfalso. apply Hw. reflexivity.
  - intros x t' E. discriminate.
Qed.

Lemma on_retract_response_SP s w ids s' : SP x0 s (pum_rr w ids) [] -> on_retract_response s w ids = Ok s' -> SP x0 s' no_pum [].
Proof.
  intros HS H. unfold on_retract_response in H.
  destruct (retract_response_states (core_of s) w ids []) as [c' groups] eqn:Er.
  destruct (rrs_SP s w ids (core_of s) [] c' groups) as (S1 & _ & _); [| constructor | intros tg l ir [] | exact Er |].
  - eapply SP_ext; [exact HS | | |]; reflexivity.
  - apply bind_ok in H. destruct H as (s2 & H & H2).
    assert (S2 : SP x0 s2 no_pum []).
    { apply (SP_pum_clear x0 s2 (pum_rr w [])).
      + eapply send_redirected_SP; [|exact H]. exact S1.
      + intros w' y. unfold pum_rr. destruct (N.eqb w' w); reflexivity. }
    destruct (retract_wakes _ _ _ _); inversion H2; subst s'; [apply SP_ask|]; exact S2.
Qed.
