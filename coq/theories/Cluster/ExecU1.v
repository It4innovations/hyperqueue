(** C06 "instance ids strictly increase": copies of a task in the system, the invariant
    [EX], and what one event of a worker process does to the copies it holds.

    A COPY of task [x] is an entry of a ComputeTasks message in a down channel, or an entry of a
    worker's backlog; it carries the instance id the server gave it.  A worker launches a task only
    by consuming a copy; the server creates copies.  The invariant [EX] (on a state and the output
    so far):
      U   at most one copy of a task exists in the whole system;
      H   every launch of [x] so far has an instance id below that of an existing copy of [x];
      H2  a copy of a task the server still knows carries at most the server's instance id;
      S1  every launch of a task the server knows has at most the server's instance id;
      S2  if the CURRENT instance of a task has been launched, the task is not waiting, no copy of
          it exists, and no worker's up channel gives it back (reject / retract response) - so the
          server cannot send it out again without a new instance id;
      L   launched tasks are known to the job layer (their ids cannot be submitted again);
      M   the launches so far of one task have strictly increasing instance ids. *)
From HQ Require Import Base.Prelude Cluster.Types Cluster.Core Cluster.Reactor Cluster.Worker Cluster.Server Cluster.Sys Cluster.ProofsWorker Cluster.NoPanicU0 Cluster.NoPanicU1 Cluster.NoPanicU2 Cluster.NoPanicU4.
From HQ Require Import Cluster.ModelFacts.
From Coq Require Import ZArith Lia Sorting.Sorted.
Local Open Scope N_scope.

Definition launches (o : list out) : list launch := flat_map (fun x => match x with OLaunch l => [l] | _ => [] end) o.
Lemma launches_app a b : launches (a ++ b) = launches a ++ launches b.
Proof. unfold launches. apply flat_map_app. Qed.
Lemma launches_map ls : launches (map OLaunch ls) = ls.
Proof. induction ls as [|h t IH]; [reflexivity|]. cbn. f_equal. exact IH. Qed.

Definition LT (ls : list launch) (x : tid) (j : N) : Prop := forall l, In l ls -> l_t l = x -> l_inst l < j.
Definition LE (ls : list launch) (x : tid) (j : N) : Prop := forall l, In l ls -> l_t l = x -> l_inst l <= j.
Definition LC (ls : list launch) (x : tid) (j : N) : Prop := exists l, In l ls /\ l_t l = x /\ l_inst l = j.

Definition mono (ls : list launch) : Prop :=
  forall a l1 b l2 c, ls = a ++ l1 :: b ++ l2 :: c -> l_t l1 = l_t l2 -> l_inst l1 < l_inst l2.

Lemma mono_nil : mono [].
Proof. intros a l1 b l2 c E. destruct a; discriminate. Qed.

Lemma mono_snoc ls l : mono ls -> LT ls (l_t l) (l_inst l) -> mono (ls ++ [l]).
Proof.
  intros Hm Hl a l1 b l2 c E Et.
  destruct c as [|c0 c] using rev_ind.
  - (* l2 is the last *)
    assert (E' : ls ++ [l] = (a ++ l1 :: b) ++ [l2]) by (rewrite E, <- app_assoc; reflexivity).
    apply app_inj_tail in E'. destruct E' as [E1 E2]. subst l2 ls. apply Hl; [|exact Et].
    apply in_app_iff. right. left. reflexivity.
  - clear IHc. assert (E' : ls ++ [l] = (a ++ l1 :: b ++ l2 :: c) ++ [c0]).
    { rewrite E. rewrite <- !app_assoc. cbn. f_equal. f_equal. rewrite <- app_assoc. reflexivity. }
    apply app_inj_tail in E'. destruct E' as [E1 _]. eapply Hm; [exact E1 | exact Et].
Qed.

Definition ctag (ct : ctask) : tid * N := (ct_id ct, ct_inst ct).
Definition wtag (t : wtask) : tid * N := (wt_id t, wt_inst t).
Definition ltag (l : launch) : tid * N := (l_t l, l_inst l).

Definition dcts (d : list dmsg) : list ctask := flat_map (fun m => match m with DCompute ts => ts | _ => [] end) d.
Definition ccnt (x : tid) (l : list ctask) : nat := length (filter (fun ct => tid_eqb (ct_id ct) x) l).
Definition dc (x : tid) (d : list dmsg) : nat := ccnt x (dcts d).
Definition bts (b : list (N * list wtask)) : list wtask := flat_map snd b.

(** number of copies of [x] held by a process, and their tags *)
Definition pc (x : tid) (p : wproc) : nat := (dc x (p_down p) + bl_count x (p_backlog p))%nat.
Definition ptags (p : wproc) : list (tid * N) := map ctag (dcts (p_down p)) ++ map wtag (bts (p_backlog p)).
Fixpoint cc (x : tid) (ps : list wproc) : nat := match ps with [] => O | p :: r => (pc x p + cc x r)%nat end.
Definition tags (ps : list wproc) : list (tid * N) := flat_map ptags ps.

Lemma dcts_app a b : dcts (a ++ b) = dcts a ++ dcts b.
Proof. unfold dcts. apply flat_map_app. Qed.
Lemma ccnt_app x a b : ccnt x (a ++ b) = (ccnt x a + ccnt x b)%nat.
Proof. unfold ccnt. rewrite filter_app, app_length. reflexivity. Qed.
Lemma dc_app x a b : dc x (a ++ b) = (dc x a + dc x b)%nat.
Proof. unfold dc. rewrite dcts_app, ccnt_app. reflexivity. Qed.
Lemma ccnt_pos x l : (0 < ccnt x l)%nat <-> exists ct, In ct l /\ ct_id ct = x.
Proof.
  unfold ccnt. induction l as [|h t IH]; cbn [filter length In]; [split; [lia | intros (y & [] & _)]|].
  destruct (tid_eqb (ct_id h) x) eqn:E.
  - apply tid_eqb_eq in E. cbn [length]. split; [intros _; exists h; auto | lia].
  - rewrite IH. split; [intros (y & Hy & Hi); exists y; auto|]. intros (y & [->|Hy] & Hi); [subst; rewrite tid_eqb_refl in E; discriminate | eauto].
Qed.
Lemma bl_count_bts x b : bl_count x b = NoPanicU2.cnt x (bts b).
Proof.
  induction b as [|[k v] r IH]; [reflexivity|]. rewrite bl_count_cons. unfold bts in *. cbn [flat_map snd]. rewrite NoPanicU2.cnt_app, IH. reflexivity.
Qed.
Lemma bl_count_in x b : (0 < bl_count x b)%nat <-> exists y, In y (bts b) /\ wt_id y = x.
Proof. rewrite bl_count_bts. apply NoPanicU2.cnt_pos. Qed.

Lemma ptags_pc p x j : In (x, j) (ptags p) -> (0 < pc x p)%nat.
Proof.
  unfold ptags, pc. intros H. apply in_app_iff in H. destruct H as [H|H]; apply in_map_iff in H; destruct H as (y & E & Hy); inversion E; subst.
  - assert (0 < dc (ct_id y) (p_down p))%nat by (apply ccnt_pos; eauto). lia.
  - assert (0 < bl_count (wt_id y) (p_backlog p))%nat by (apply bl_count_in; eauto). lia.
Qed.
Lemma tags_cc ps x j : In (x, j) (tags ps) -> (0 < cc x ps)%nat.
Proof.
  unfold tags. rewrite in_flat_map. intros (p & Hp & Hin). induction ps as [|h r IH]; [destruct Hp|]. cbn [cc].
  destruct Hp as [->|Hp]; [pose proof (ptags_pc _ _ _ Hin); lia | specialize (IH Hp); lia].
Qed.

(** task ids given back to the server in an up channel *)
Definition ugives (us : list wupdate) : list tid := flat_map (fun u => match u with UReject x _ => [x] | _ => [] end) us.
Definition gives (up : list umsg) : list tid :=
  flat_map (fun m => match m with URetractResponse ids => ids | UUpdates us => ugives us end) up.
Lemma gives_app a b : gives (a ++ b) = gives a ++ gives b.
Proof. unfold gives. apply flat_map_app. Qed.
Lemma ugives_app a b : ugives (a ++ b) = ugives a ++ ugives b.
Proof. unfold ugives. apply flat_map_app. Qed.
Definition tcnt (x : tid) (l : list tid) : nat := length (filter (fun y => tid_eqb y x) l).
Lemma tcnt_app x a b : tcnt x (a ++ b) = (tcnt x a + tcnt x b)%nat.
Proof. unfold tcnt. rewrite filter_app, app_length. reflexivity. Qed.
Lemma tcnt_pos x l : (0 < tcnt x l)%nat <-> In x l.
Proof.
  unfold tcnt. induction l as [|h t IH]; cbn [filter length In]; [split; [lia | intros []]|].
  destruct (tid_eqb h x) eqn:E.
  - apply tid_eqb_eq in E. cbn [length]. split; [auto | lia].
  - rewrite IH. split; [auto|]. intros [->|H]; [rewrite tid_eqb_refl in E; discriminate | exact H].
Qed.
Definition lcnt (x : tid) (ls : list launch) : nat := length (filter (fun l => tid_eqb (l_t l) x) ls).
Lemma lcnt_app x a b : lcnt x (a ++ b) = (lcnt x a + lcnt x b)%nat.
Proof. unfold lcnt. rewrite filter_app, app_length. reflexivity. Qed.
Lemma lcnt_pos x l : (0 < lcnt x l)%nat <-> exists y, In y l /\ l_t y = x.
Proof.
  unfold lcnt. induction l as [|h t IH]; cbn [filter length In]; [split; [lia | intros (y & [] & _)]|].
  destruct (tid_eqb (l_t h) x) eqn:E.
  - apply tid_eqb_eq in E. cbn [length]. split; [intros _; exists h; auto | lia].
  - rewrite IH. split; [intros (y & Hy & Hi); exists y; auto|]. intros (y & [->|Hy] & Hi); [subst; rewrite tid_eqb_refl in E; discriminate | eauto].
Qed.

Record EX (s : sys) (outs : list out) : Prop := mkEX {
  ex_u : forall x, (cc x (s_procs s) <= 1)%nat;
  ex_h : forall x j, In (x, j) (tags (s_procs s)) -> LT (launches outs) x j;
  ex_h2 : forall x j t, In (x, j) (tags (s_procs s)) -> find_task (c_tasks (s_core s)) x = Some t -> j <= t_inst t;
  ex_s1 : forall x t, find_task (c_tasks (s_core s)) x = Some t -> LE (launches outs) x (t_inst t);
  ex_s2 : forall x t, find_task (c_tasks (s_core s)) x = Some t -> LC (launches outs) x (t_inst t) ->
          is_waiting t = false /\ cc x (s_procs s) = O /\ forall p, In p (s_procs s) -> ~ In x (gives (p_up p));
  ex_l : forall l, In l (launches outs) -> seen (s_hq s) (l_t l) = true;
  ex_m : mono (launches outs)
}.

(** [bcnt x]: number of copies of [x] it held; afterwards every copy has been launched, given back,
    kept or dropped, and nothing else was launched, given back or is held. *)
Definition weff (btags : list (tid * N)) (bcnt : tid -> nat) (p' : wproc) (ls : list launch) (newg : list tid) : Prop :=
  (forall x, (lcnt x ls + tcnt x newg + pc x p' <= bcnt x)%nat) /\
  (forall l, In l ls -> In (ltag l) btags) /\ (forall c, In c (ptags p') -> In c btags).

Lemma bts_set_in b rq v y : In y (bts (bl_set b rq v)) -> In y v \/ In y (bts b).
Proof.
  unfold bts. induction b as [|[k v0] r IH]; cbn [bl_set flat_map snd]; [rewrite app_nil_r; auto|].
  destruct (N.eqb rq k); [cbn [flat_map snd]; rewrite !in_app_iff; tauto|].
  destruct (N.ltb rq k); cbn [flat_map snd]; rewrite !in_app_iff; [tauto|]. intros [H|H]; [tauto|]. destruct (IH H); tauto.
Qed.
Lemma bl_get_bts b rq y : In y (bl_get b rq) -> In y (bts b).
Proof.
  unfold bts. induction b as [|[k v] r IH]; cbn [bl_get flat_map snd]; [intros []|]. rewrite in_app_iff.
  destruct (N.eqb rq k); [auto | intros H; right; apply IH; exact H].
Qed.

Lemma try_start_tags q t rv pre alloc q1 u l st : try_start_task q t rv pre alloc = (q1, u, l, st) ->
  p_down q1 = p_down q /\ p_backlog q1 = p_backlog q /\ p_up q1 = p_up q /\ ugives u = [] /\
  exists la, l = [la] /\ ltag la = wtag t.
Proof.
  unfold try_start_task. destruct (tid_mem (wt_id t) (p_failnext q)); intros H; inversion H; subst; cbn;
    repeat split; try (destruct pre; reflexivity); eexists; split; reflexivity.
Qed.

Lemma prefill_loop_eff fuel : forall q rq rv alloc ups ls q' ups' ls' used,
  prefill_loop fuel q rq rv alloc ups ls = (q', ups', ls', used) -> StronglySorted N.lt (map fst (p_backlog q)) ->
  p_down q' = p_down q /\ p_up q' = p_up q /\ ugives ups' = ugives ups /\ StronglySorted N.lt (map fst (p_backlog q')) /\
  exists lnew, ls' = ls ++ lnew /\
    (forall x, (lcnt x lnew + bl_count x (p_backlog q') = bl_count x (p_backlog q))%nat) /\
    (forall l, In l lnew -> exists y, In y (bts (p_backlog q)) /\ ltag l = wtag y) /\
    (forall y, In y (bts (p_backlog q')) -> In y (bts (p_backlog q))).
Proof.
  induction fuel as [|k IH]; intros q rq rv alloc ups ls q' ups' ls' used H Hs.
  - cbn [prefill_loop] in H. inversion H; subst. cbn. repeat split; try assumption. exists []. rewrite app_nil_r. repeat split; auto. intros l [].
  - cbn [prefill_loop] in H.
    assert (Hstop : (wp_free q (res_add (p_free q) alloc), ups, ls, false) = (q', ups', ls', used) ->
              p_down q' = p_down q /\ p_up q' = p_up q /\ ugives ups' = ugives ups /\ StronglySorted N.lt (map fst (p_backlog q')) /\
              exists lnew, ls' = ls ++ lnew /\
                (forall x, (lcnt x lnew + bl_count x (p_backlog q') = bl_count x (p_backlog q))%nat) /\
                (forall l, In l lnew -> exists y, In y (bts (p_backlog q)) /\ ltag l = wtag y) /\
                (forall y, In y (bts (p_backlog q')) -> In y (bts (p_backlog q)))).
    { intros E. inversion E; subst. cbn. repeat split; try assumption. exists []. rewrite app_nil_r. repeat split; auto. intros l []. }
    destruct (pop_last (bl_get (p_backlog q) rq)) as [[t rest]|] eqn:Ep; [|apply Hstop; exact H].
    destruct (bl_has (p_backlog q) rq) eqn:Eh; [|apply Hstop; exact H].
    set (q0 := wp_backlog q (bl_set (p_backlog q) rq rest)) in *.
    destruct (try_start_task q0 t rv true alloc) as [[[q1 u] l] started] eqn:Et.
    destruct (try_start_tags _ _ _ _ _ _ _ _ _ Et) as (D1 & B1 & U1 & G1 & la & -> & Ela).
    pose proof (pop_last_snoc _ _ _ Ep) as Esn.
    assert (Hcnt : forall x, (lcnt x [la] + bl_count x (p_backlog q1) = bl_count x (p_backlog q))%nat).
    { intros x. rewrite B1. cbn [q0 p_backlog wp_backlog wp_upd]. pose proof (bl_count_set x (p_backlog q) rq rest Hs) as Hc.
      rewrite Esn, NoPanicU2.cnt_app, NoPanicU2.cnt_one in Hc. unfold lcnt. cbn [filter].
      assert (E1 : l_t la = wt_id t) by (unfold ltag, wtag in Ela; inversion Ela; reflexivity). rewrite E1.
      destruct (tid_eqb (wt_id t) x); cbn [length]; lia. }
    assert (Hsrc : In t (bts (p_backlog q))) by (eapply bl_get_bts; rewrite Esn; apply in_app_iff; right; left; reflexivity).
    assert (Hsub : forall y, In y (bts (p_backlog q1)) -> In y (bts (p_backlog q))).
    { intros y Hy. rewrite B1 in Hy. cbn [q0 p_backlog wp_backlog wp_upd] in Hy. destruct (bts_set_in _ _ _ _ Hy) as [Hr|Hr]; [|exact Hr].
      eapply bl_get_bts. rewrite Esn. apply in_app_iff. left. exact Hr. }
    assert (Hs1 : StronglySorted N.lt (map fst (p_backlog q1))) by (rewrite B1; cbn [q0 p_backlog wp_backlog wp_upd]; apply bl_set_sorted; exact Hs).
    destruct started.
    + inversion H; subst. split; [rewrite D1; reflexivity|]. split; [rewrite U1; reflexivity|]. split; [rewrite ugives_app, G1, app_nil_r; reflexivity|].
      split; [exact Hs1|]. exists [la]. split; [reflexivity|]. split; [exact Hcnt|]. split; [|exact Hsub].
      intros l [<-|[]]. exists t. auto.
    + destruct (IH _ _ _ _ _ _ _ _ _ _ H Hs1) as (D2 & U2 & G2 & S2 & lnew & E2 & C2 & L2 & B2).
      split; [rewrite D2, D1; reflexivity|]. split; [rewrite U2, U1; reflexivity|]. split; [rewrite G2, ugives_app, G1, app_nil_r; reflexivity|].
      split; [exact S2|]. exists (la :: lnew). split; [rewrite E2, <- app_assoc; reflexivity|]. split.
      * intros x. specialize (C2 x). specialize (Hcnt x). change (la :: lnew) with ([la] ++ lnew). rewrite lcnt_app. lia.
      * split; [|intros y Hy; apply Hsub, B2; exact Hy]. intros l [<-|Hl]; [exists t; auto|]. destruct (L2 l Hl) as (y & Hy & Ey). exists y. split; [apply Hsub; exact Hy | exact Ey].
Qed.

Lemma ccnt_cons x ct r : ccnt x (ct :: r) = ((if tid_eqb (ct_id ct) x then 1 else 0) + ccnt x r)%nat.
Proof. unfold ccnt. cbn [filter]. destruct (tid_eqb (ct_id ct) x); reflexivity. Qed.
Lemma lcnt_one x la : lcnt x [la] = if tid_eqb (l_t la) x then 1%nat else O.
Proof. unfold lcnt. cbn [filter]. destruct (tid_eqb (l_t la) x); reflexivity. Qed.
Lemma tcnt_one x y : tcnt x [y] = if tid_eqb y x then 1%nat else O.
Proof. unfold tcnt. cbn [filter]. destruct (tid_eqb y x); reflexivity. Qed.

Lemma compute_loop_eff ts : forall q ups ls q' ups' ls',
  compute_loop q ts ups ls = Ok (q', ups', ls') -> StronglySorted N.lt (map fst (p_backlog q)) ->
  p_down q' = p_down q /\ p_up q' = p_up q /\ StronglySorted N.lt (map fst (p_backlog q')) /\
  exists lnew gnew, ls' = ls ++ lnew /\ ugives ups' = ugives ups ++ gnew /\
    (forall x, (lcnt x lnew + tcnt x gnew + bl_count x (p_backlog q') = ccnt x ts + bl_count x (p_backlog q))%nat) /\
    (forall l, In l lnew -> In (ltag l) (map ctag ts ++ map wtag (bts (p_backlog q)))) /\
    (forall y, In y (bts (p_backlog q')) -> In (wtag y) (map ctag ts ++ map wtag (bts (p_backlog q)))).
Proof.
  induction ts as [|ct r IH]; intros q ups ls q' ups' ls' H Hs.
  - cbn [compute_loop] in H. inversion H; subst. repeat split; try assumption. exists [], []. rewrite !app_nil_r. repeat split; auto.
    + intros l [].
    + intros y Hy. cbn [map app]. apply in_map. exact Hy.
  - cbn [compute_loop] in H.
    set (t := mkWT (ct_id ct) (ct_inst ct) (ct_rq ct) (ct_tlim ct) (ct_nodes ct)) in *.
    assert (Etag : wtag t = ctag ct) by reflexivity.
    (* the common continuation *)
    assert (Hcont : forall q1 ups1 ls1 l1 g1,
              compute_loop q1 r ups1 ls1 = Ok (q', ups', ls') ->
              p_down q1 = p_down q -> p_up q1 = p_up q -> StronglySorted N.lt (map fst (p_backlog q1)) ->
              ls1 = ls ++ l1 -> ugives ups1 = ugives ups ++ g1 ->
              (forall x, (lcnt x l1 + tcnt x g1 + bl_count x (p_backlog q1) = (if tid_eqb (ct_id ct) x then 1 else 0) + bl_count x (p_backlog q))%nat) ->
              (forall l, In l l1 -> In (ltag l) (ctag ct :: map wtag (bts (p_backlog q)))) ->
              (forall y, In y (bts (p_backlog q1)) -> In (wtag y) (ctag ct :: map wtag (bts (p_backlog q)))) ->
              p_down q' = p_down q /\ p_up q' = p_up q /\ StronglySorted N.lt (map fst (p_backlog q')) /\
              exists lnew gnew, ls' = ls ++ lnew /\ ugives ups' = ugives ups ++ gnew /\
                (forall x, (lcnt x lnew + tcnt x gnew + bl_count x (p_backlog q') = ccnt x (ct :: r) + bl_count x (p_backlog q))%nat) /\
                (forall l, In l lnew -> In (ltag l) (map ctag (ct :: r) ++ map wtag (bts (p_backlog q)))) /\
                (forall y, In y (bts (p_backlog q')) -> In (wtag y) (map ctag (ct :: r) ++ map wtag (bts (p_backlog q))))).
    { intros q1 ups1 ls1 l1 g1 H1 D1 U1 S1 El Eg C1 L1 B1.
      destruct (IH _ _ _ _ _ _ H1 S1) as (D2 & U2 & S2 & lnew & gnew & E2 & G2 & C2 & L2 & B2).
      split; [congruence|]. split; [congruence|]. split; [exact S2|].
      exists (l1 ++ lnew), (g1 ++ gnew). split; [rewrite E2, El, app_assoc; reflexivity|]. split; [rewrite G2, Eg, app_assoc; reflexivity|].
      assert (Hmv : forall c, In c (map ctag r ++ map wtag (bts (p_backlog q1))) -> In c (map ctag (ct :: r) ++ map wtag (bts (p_backlog q)))).
      { intros c Hc. cbn [map app]. apply in_app_iff in Hc. destruct Hc as [Hc|Hc]; [right; apply in_app_iff; left; exact Hc|].
        apply in_map_iff in Hc. destruct Hc as (y & <- & Hy). destruct (B1 y Hy) as [E|Hin]; [left; exact E | right; apply in_app_iff; right; exact Hin]. }
      split; [|split].
      - intros x. specialize (C1 x). specialize (C2 x). rewrite lcnt_app, tcnt_app, ccnt_cons. lia.
      - intros l Hl. apply in_app_iff in Hl. destruct Hl as [Hl|Hl]; [|apply Hmv, L2; exact Hl].
        cbn [map app]. destruct (L1 l Hl) as [E|Hin]; [left; exact E | right; apply in_app_iff; right; exact Hin].
      - intros y Hy. apply Hmv, B2. exact Hy. }
    destruct (ct_rv ct) as [rv|] eqn:Erv.
    + apply bind_ok in H. destruct H as (rq & _ & H).
      destruct (negb (N.eqb rv 0)); [discriminate|].
      destruct (res_fits (p_free q) (rq_res rq)).
      * set (p0 := wp_free q (res_sub (p_free q) (rq_res rq))) in *.
        destruct (try_start_task p0 t rv false (rq_res rq)) as [[[q1 u] l] started] eqn:Et.
        destruct (try_start_tags _ _ _ _ _ _ _ _ _ Et) as (D1 & B1 & U1 & G1 & la & -> & Ela).
        assert (E1 : l_t la = ct_id ct) by (unfold ltag in Ela; rewrite Etag in Ela; inversion Ela; reflexivity).
        destruct started.
        -- eapply (Hcont q1 (ups ++ u) (ls ++ [la]) [la] []); [exact H | rewrite D1; reflexivity | rewrite U1; reflexivity | rewrite B1; exact Hs | reflexivity
             | rewrite ugives_app, G1; reflexivity | | |].
           ++ intros x. rewrite B1, lcnt_one, E1. cbn [p0 p_backlog wp_free wp_upd tcnt filter length]. lia.
           ++ intros l0 [<-|[]]. left. rewrite Ela. exact Etag.
           ++ intros y Hy. rewrite B1 in Hy. right. apply in_map. exact Hy.
        -- destruct (prefill_loop (S (backlog_size q1)) q1 (ct_rq ct) rv (rq_res rq) (ups ++ u) (ls ++ [la])) as [[[q2 u2] l2] used] eqn:Ep.
           assert (Hs1 : StronglySorted N.lt (map fst (p_backlog q1))) by (rewrite B1; exact Hs).
           destruct (prefill_loop_eff _ _ _ _ _ _ _ _ _ _ _ Ep Hs1) as (D2 & U2 & G2 & S2 & lnew & E2 & C2 & L2 & B2).
           eapply (Hcont q2 u2 l2 (la :: lnew) []); [exact H | rewrite D2, D1; reflexivity | rewrite U2, U1; reflexivity | exact S2
             | rewrite E2, <- app_assoc; reflexivity | rewrite G2, ugives_app, G1; reflexivity | | |].
           ++ intros x. specialize (C2 x). rewrite B1 in C2. cbn [p0 p_backlog wp_free wp_upd] in C2.
              change (la :: lnew) with ([la] ++ lnew). rewrite lcnt_app, lcnt_one, E1. cbn [tcnt filter length]. lia.
           ++ intros l0 [<-|Hl]; [left; rewrite Ela; exact Etag|]. destruct (L2 l0 Hl) as (y & Hy & Ey). right. rewrite Ey. apply in_map. rewrite B1 in Hy. exact Hy.
           ++ intros y Hy. right. apply in_map. apply B2 in Hy. rewrite B1 in Hy. exact Hy.
      * eapply (Hcont _ (ups ++ [UReject (ct_id ct) (Some rv)]) ls [] [ct_id ct]); [exact H | reflexivity | reflexivity | exact Hs | rewrite app_nil_r; reflexivity
          | rewrite ugives_app; reflexivity | | |].
        -- intros x. cbn [wp_blocked p_backlog wp_upd lcnt filter length]. rewrite tcnt_one. lia.
        -- intros l0 [].
        -- intros y Hy. right. apply in_map. exact Hy.
    + eapply (Hcont _ ups ls [] []); [exact H | reflexivity | reflexivity | cbn [wp_backlog p_backlog wp_upd]; apply bl_set_sorted; exact Hs | rewrite app_nil_r; reflexivity
        | rewrite app_nil_r; reflexivity | | |].
      * intros x. cbn [wp_backlog p_backlog wp_upd lcnt tcnt filter length].
        pose proof (bl_count_set x (p_backlog q) (ct_rq ct) (bl_get (p_backlog q) (ct_rq ct) ++ [t]) Hs) as Hc.
        rewrite NoPanicU2.cnt_app, NoPanicU2.cnt_one in Hc. change (wt_id t) with (ct_id ct) in Hc. lia.
      * intros l0 [].
      * intros y Hy. cbn [wp_backlog p_backlog wp_upd] in Hy. destruct (bts_set_in _ _ _ _ Hy) as [Hr|Hr]; [|right; apply in_map; exact Hr].
        apply in_app_iff in Hr. destruct Hr as [Hr|[<-|[]]]; [right; apply in_map; eapply bl_get_bts; exact Hr | left; exact Etag].
Qed.

Lemma rr_len x out : length (rr x out) = tcnt x out.
Proof.
  unfold rr, tcnt. induction out as [|h t IH]; [reflexivity|]. cbn [flat_map filter]. rewrite app_length, IH. unfold sel.
  destruct (tid_eqb h x); reflexivity.
Qed.

Lemma retract_from_bts order : forall b ids out b' out', retract_from b order ids out = (b', out') ->
  forall y, In y (bts b') -> In y (bts b).
Proof.
  induction order as [|rq r IH]; cbn [retract_from]; intros b ids out b' out' H y Hy; [inversion H; subst; exact Hy|].
  specialize (IH _ _ _ _ _ H y Hy). destruct (bl_has b rq); [|exact IH].
  destruct (bts_set_in _ _ _ _ IH) as [Hf|Hb]; [|exact Hb]. apply filter_In in Hf. eapply bl_get_bts. exact (proj1 Hf).
Qed.

Lemma cancel_fold_eff ids : forall q, StronglySorted N.lt (map fst (p_backlog q)) ->
  let q' := fold_left cancel_task ids q in
  p_down q' = p_down q /\ p_up q' = p_up q /\ StronglySorted N.lt (map fst (p_backlog q')) /\
  (forall x, (bl_count x (p_backlog q') <= bl_count x (p_backlog q))%nat) /\
  (forall y, In y (bts (p_backlog q')) -> In y (bts (p_backlog q))).
Proof.
  induction ids as [|i r IH]; intros q Hs; cbn [fold_left]; [repeat split; auto|].
  destruct (cancel_task_eff q i) as (U1 & D1 & _ & _ & _ & _ & C1 & _).
  assert (Hb : forall y, In y (bts (p_backlog (cancel_task q i))) -> In y (bts (p_backlog q))).
  { unfold cancel_task. destruct (run_find (p_running q) i); [destruct (fu_find (p_futures q) i) as [[|]|]; auto|].
    cbn [p_backlog wp_backlog wp_upd]. intros y Hy. unfold bts in *. rewrite in_flat_map in *. destruct Hy as ([k v] & Hin & Hy).
    apply in_map_iff in Hin. destruct Hin as (kv0 & E & Hin). inversion E; subst. cbn in Hy. apply filter_In in Hy. exists kv0. split; [exact Hin | exact (proj1 Hy)]. }
  assert (Hs1 : StronglySorted N.lt (map fst (p_backlog (cancel_task q i)))).
  { unfold cancel_task. destruct (run_find (p_running q) i); [destruct (fu_find (p_futures q) i) as [[|]|]; exact Hs|].
    cbn [p_backlog wp_backlog wp_upd]. rewrite map_map. cbn. exact Hs. }
  destruct (IH (cancel_task q i) Hs1) as (D2 & U2 & S2 & C2 & B2). cbv zeta in *.
  split; [congruence|]. split; [congruence|]. split; [exact S2|]. split.
  - intros x. specialize (C2 x). destruct (C1 x) as [E|[_ E]]; lia.
  - intros y Hy. apply Hb, B2. exact Hy.
Qed.

(** the head message [m] has been taken off the down channel of [p] *)
Lemma pwm_eff p m order p' ls : process_worker_message p m order = Ok (p', ls) ->
  StronglySorted N.lt (map fst (p_backlog p)) ->
  exists newg, gives (p_up p') = gives (p_up p) ++ newg /\ StronglySorted N.lt (map fst (p_backlog p')) /\
    weff (map ctag (dcts [m]) ++ ptags p) (fun x => (dc x [m] + pc x p)%nat) p' ls newg.
Proof.
  intros H Hs.
  (* the messages that touch neither the channels nor the backlog *)
  assert (Hkeep : forall q, p_down q = p_down p -> p_backlog q = p_backlog p -> p_up q = p_up p ->
            exists newg, gives (p_up q) = gives (p_up p) ++ newg /\ StronglySorted N.lt (map fst (p_backlog q)) /\
              weff (map ctag (dcts [m]) ++ ptags p) (fun x => (dc x [m] + pc x p)%nat) q [] newg).
  { intros q Ed Eb Eu. exists []. rewrite app_nil_r, Eu, Eb. split; [reflexivity|]. split; [exact Hs|]. unfold weff, pc, ptags. rewrite Ed, Eb.
    split; [intros x; cbn [lcnt tcnt filter length]; lia | split; [intros l [] | intros c Hc; apply in_app_iff; right; exact Hc]]. }
  unfold weff, pc, ptags.
  destruct m as [ts|ids|ids|w0|w0|rq def|]; cbn [process_worker_message] in H.
  - (* compute *)
    apply bind_ok in H. destruct H as ([[p1 ups] ls1] & H1 & H).
    destruct (compute_loop_eff _ _ _ _ _ _ _ H1 Hs) as (D1 & U1 & S1 & lnew & gnew & El & Eg & C1 & L1 & B1).
    cbn [app ugives flat_map] in El, Eg. subst ls1.
    assert (Hres : p_down p' = p_down p1 /\ p_backlog p' = p_backlog p1 /\ gives (p_up p') = gives (p_up p) ++ gnew /\ ls = lnew).
    { destruct ups as [|u0 ur].
      - inversion H; subst. rewrite U1, app_nil_r. auto.
      - inversion H; subst. unfold send_up. cbn [p_down p_backlog p_up wp_up wp_upd]. rewrite gives_app, U1. cbn [gives flat_map]. rewrite app_nil_r. auto. }
    destruct Hres as (Ed & Eb & Egv & ->). exists gnew. split; [exact Egv|]. split; [rewrite Eb; exact S1|].
    unfold dc. cbn [dcts flat_map]. rewrite !app_nil_r. split; [|split].
    + intros x. specialize (C1 x). rewrite Ed, D1, Eb. fold (dc x (p_down p)). lia.
    + intros l Hl. specialize (L1 l Hl). apply in_app_iff in L1. destruct L1 as [A|A]; apply in_app_iff; [left; exact A | right; apply in_app_iff; right; exact A].
    + intros c Hc. rewrite Ed, D1, Eb in Hc. apply in_app_iff in Hc. destruct Hc as [A|A]; [apply in_app_iff; right; apply in_app_iff; left; exact A|].
      apply in_map_iff in A. destruct A as (y & <- & Hy). specialize (B1 y Hy). apply in_app_iff in B1.
      destruct B1 as [A|A]; apply in_app_iff; [left; exact A | right; apply in_app_iff; right; exact A].
  - (* retract *)
    destruct (negb (n_perm order (map fst (p_backlog p)))); [discriminate|].
    destruct (retract_from (p_backlog p) order ids []) as [b out] eqn:Er.
    pose proof (retract_from_cons _ _ _ _ _ _ Er Hs) as Hc. pose proof (retract_from_bts _ _ _ _ _ _ Er) as Hb.
    destruct (retract_from_sorted _ _ _ _ _ _ Er Hs) as [Sb _].
    assert (Hres : p_down p' = p_down p /\ p_backlog p' = b /\ ls = [] /\ gives (p_up p') = gives (p_up p) ++ (match ids with [] => [] | _ => out end)).
    { destruct ids as [|i0 ir]; inversion H; subst; cbn [p_down p_backlog p_up wp_backlog wp_upd send_up wp_up]; repeat split.
      - rewrite app_nil_r. reflexivity.
      - rewrite gives_app. cbn [gives flat_map]. rewrite app_nil_r. reflexivity. }
    destruct Hres as (Ed & Eb & -> & Egv). eexists. split; [exact Egv|]. split; [rewrite Eb; exact Sb|].
    unfold dc. cbn [dcts flat_map ccnt filter length map app lcnt]. split; [|split].
    + intros x. destruct (Hc x) as [I1 _]. rewrite !rr_len in I1. cbn [tcnt filter length] in I1. rewrite Ed, Eb. fold (dc x (p_down p)).
      destruct ids; [cbn [tcnt filter length]; lia | lia].
    + intros l [].
    + intros c Hc'. rewrite Ed, Eb in Hc'. apply in_app_iff in Hc'. destruct Hc' as [A|A]; apply in_app_iff; [left; exact A | right].
      apply in_map_iff in A. destruct A as (y & <- & Hy). apply in_map. apply Hb. exact Hy.
  - (* cancel *)
    inversion H; subst. destruct (cancel_fold_eff ids p Hs) as (D1 & U1 & S1 & C1 & B1). cbv zeta in *.
    exists []. rewrite app_nil_r. split; [rewrite U1; reflexivity|]. split; [exact S1|].
    unfold dc. cbn [dcts flat_map ccnt filter length map app lcnt tcnt]. split; [|split].
    + intros x. specialize (C1 x). rewrite D1. fold (dc x (p_down p)). lia.
    + intros l [].
    + intros c Hc. rewrite D1 in Hc. apply in_app_iff in Hc. destruct Hc as [A|A]; apply in_app_iff; [left; exact A | right].
      apply in_map_iff in A. destruct A as (y & <- & Hy). apply in_map. apply B1. exact Hy.
  - inversion H; subst. exact (Hkeep _ eq_refl eq_refl eq_refl).
  - inversion H; subst. exact (Hkeep _ eq_refl eq_refl eq_refl).
  - destruct (N.eqb rq (N.of_nat (length (p_rqs p)))); [|discriminate]. inversion H; subst. exact (Hkeep _ eq_refl eq_refl eq_refl).
  - inversion H; subst. exact (Hkeep _ eq_refl eq_refl eq_refl).
Qed.

Lemma ugives_enable l : ugives (map (fun b : N * N => UEnable (fst b) (snd b)) l) = [].
Proof. induction l as [|h t IH]; [reflexivity | exact IH]. Qed.

Lemma task_end_eff p t how p' ls : task_end p t how = Ok (p', ls) -> StronglySorted N.lt (map fst (p_backlog p)) ->
  gives (p_up p') = gives (p_up p) /\ StronglySorted N.lt (map fst (p_backlog p')) /\
  weff (ptags p) (fun x => pc x p) p' ls [].
Proof.
  intros H Hs. unfold task_end in H. destruct (fu_find (p_futures p) t) as [stop|]; [|discriminate].
  destruct (run_find (p_running p) t) as [rv|]; [|discriminate]. destruct (al_find (p_alloc p) t) as [[|rq alloc]|]; try discriminate.
  match type of H with context [prefill_loop ?f ?q0 ?a ?b ?c ?u0 []] => destruct (prefill_loop f q0 a b c u0 []) as [[[p1 ups1] ls1] usd] eqn:Ep end.
  match type of Ep with prefill_loop _ ?q0 _ _ _ ?u0 [] = _ => set (p0 := q0) in *; set (ups0 := u0) in * end.
  assert (Hg0 : ugives ups0 = []) by (subst ups0; destruct how; [reflexivity | reflexivity | destruct stop as [[|]|]; reflexivity]).
  destruct (prefill_loop_eff _ _ _ _ _ _ _ _ _ _ _ Ep Hs) as (D1 & U1 & G1 & S1 & lnew & El & C1 & L1 & B1). cbn [app] in El. subst ls1.
  match type of H with (let '(_, _) := ?e in _) = _ => destruct e as [p2 ups2] eqn:E2 end.
  assert (A2 : p_down p2 = p_down p1 /\ p_backlog p2 = p_backlog p1 /\ p_up p2 = p_up p1 /\ ugives ups2 = []).
  { destruct (negb usd); inversion E2; subst; cbn [p_down p_backlog p_up wp_blocked wp_upd]; repeat split; try (rewrite G1; exact Hg0).
    rewrite ugives_app, ugives_enable, G1, Hg0. reflexivity. }
  destruct A2 as (Ed2 & Eb2 & Eu2 & Eg2).
  assert (A3 : p_down p' = p_down p /\ p_backlog p' = p_backlog p1 /\ gives (p_up p') = gives (p_up p) /\ ls = lnew).
  { destruct ups2 as [|u0 ur]; inversion H; subst.
    - rewrite Ed2, D1, Eb2, Eu2, U1. auto.
    - unfold send_up. cbn [p_down p_backlog p_up wp_up wp_upd]. rewrite Ed2, D1, Eb2, gives_app, Eu2, U1. cbn [gives flat_map]. rewrite Eg2, !app_nil_r. auto. }
  destruct A3 as (Ed & Eb & Eg & ->).
  split; [exact Eg|]. split; [rewrite Eb; exact S1|]. unfold weff, pc, ptags. split; [|split].
  - intros x. specialize (C1 x). rewrite Ed, Eb. cbn [p0 p_backlog wp_upd] in C1. cbn [tcnt filter length]. lia.
  - intros l Hl. destruct (L1 l Hl) as (y & Hy & Ey). apply in_app_iff. right. rewrite Ey. apply in_map. exact Hy.
  - intros c Hc. rewrite Ed, Eb in Hc. apply in_app_iff in Hc. destruct Hc as [A|A]; apply in_app_iff; [left; exact A | right].
    apply in_map_iff in A. destruct A as (y & <- & Hy). apply in_map. exact (B1 y Hy).
Qed.
