(** C07, "every running task is counted", part 1: the crash-limit loop [lost_fail_running].
    For every task of the list handed to it that is still in the core, the loop increments the
    crash counter, and fails the task when its limit is reached; a task can disappear otherwise only
    by being aborted (another task of its job failed and the job's failure limit was exceeded). *)
From HQ Require Import Base.Prelude Cluster.Types Cluster.Core Cluster.Reactor Cluster.Worker Cluster.Server Cluster.Sys Cluster.ProofsJob Cluster.ProofsMore Cluster.ProofsTerminal Cluster.ProofsStep Cluster.ProofsOnce Cluster.BijBase Cluster.BijCore Cluster.BijHq Cluster.BijSt Cluster.BijReact Cluster.FrameGen Cluster.CrashFrame.
From HQ Require Import Cluster.ModelFacts.
From Coq Require Import ZArith Lia Sorting.Sorted.
Local Open Scope N_scope.

Arguments N.add : simpl never.
Arguments N.sub : simpl never.

Lemma check_termination_out s jid s' : check_termination s jid = Ok s' -> exists E, snd s' = snd s ++ E.
Proof.
  unfold check_termination. intros H. apply bind_ok in H. destruct H as (j & _ & H). apply bind_ok in H. destruct H as (na & _ & H).
  destruct na; [|inversion H; subst; exists []; rewrite app_nil_r; reflexivity].
  destruct (j_open j); inversion H; subst; [exists []; rewrite app_nil_r; reflexivity|].
  eexists. reflexivity.
Qed.

Lemma abort_tasks_out s jid ids s' : abort_tasks s jid ids = Ok s' ->
  exists E, snd s' = snd s ++ E /\ (ids <> [] -> In (OEv (EvAborted ids)) E).
Proof.
  unfold abort_tasks. intros H.
  destruct ids as [|i0 ir] eqn:Eids; [inversion H; subst; exists []; rewrite app_nil_r; split; [reflexivity | congruence]|].
  rewrite <- Eids in *. apply bind_ok in H. destruct H as (j & _ & H). apply bind_ok in H. destruct H as (j1 & _ & H).
  destruct (check_termination_out _ _ _ H) as (E & HE). cbn [emit hq_set_job snd fst] in HE.
  exists ([OEv (EvAborted ids)] ++ E). split; [rewrite HE, app_assoc; reflexivity | intros _; left; reflexivity].
Qed.

Lemma process_task_failed_out s t ab k s' ids : process_task_failed s t ab k = Ok (s', ids) ->
  exists E, snd s' = snd s ++ E /\ In (OEv (EvFailed t k)) E /\
    (ab <> [] -> In (OEv (EvAborted ab)) E) /\ (ids <> [] -> In (OEv (EvAborted ids)) E).
Proof.
  intros Hc. unfold process_task_failed in Hc.
  apply bind_ok in Hc. destruct Hc as (s1 & H1 & Hc). destruct (abort_tasks_out _ _ _ _ H1) as (E1 & HE1 & A1).
  apply bind_ok in Hc. destruct Hc as (j & _ & Hc). apply bind_ok in Hc. destruct Hc as (j1 & _ & Hc).
  apply bind_ok in Hc. destruct Hc as (s2 & H2 & Hc). destruct (check_termination_out _ _ _ H2) as (E2 & HE2).
  cbn [emit hq_set_job snd fst] in HE2.
  assert (Hmid : snd s2 = snd s ++ (E1 ++ [OEv (EvFailed t k)] ++ E2)) by (rewrite HE2, HE1, !app_assoc; reflexivity).
  assert (Hf : In (OEv (EvFailed t k)) (E1 ++ [OEv (EvFailed t k)] ++ E2)) by (apply in_or_app; right; left; reflexivity).
  assert (Ha : ab <> [] -> In (OEv (EvAborted ab)) (E1 ++ [OEv (EvFailed t k)] ++ E2)) by (intros X; apply in_or_app; left; exact (A1 X)).
  apply bind_ok in Hc. destruct Hc as (j2 & _ & Hc).
  assert (Hnone : s' = s2 -> ids = [] -> exists E, snd s' = snd s ++ E /\ In (OEv (EvFailed t k)) E /\
            (ab <> [] -> In (OEv (EvAborted ab)) E) /\ (ids <> [] -> In (OEv (EvAborted ids)) E)).
  { intros -> ->. eexists. split; [exact Hmid|]. split; [exact Hf|]. split; [exact Ha | congruence]. }
  destruct (j_maxfails j2) as [mf|]; [|inversion Hc; subst; apply Hnone; reflexivity].
  destruct (N.ltb mf (j_nfail j2)); [|inversion Hc; subst; apply Hnone; reflexivity].
  apply bind_ok in Hc. destruct Hc as (s3 & H3 & Hc). inversion Hc; subst. clear Hnone.
  destruct (abort_tasks_out _ _ _ _ H3) as (E3 & HE3 & A3).
  exists ((E1 ++ [OEv (EvFailed t k)] ++ E2) ++ E3). split; [rewrite HE3, Hmid; symmetry; apply app_assoc|].
  split; [apply in_or_app; left; exact Hf|]. split; [intros X; apply in_or_app; left; exact (Ha X) | intros X; apply in_or_app; right; exact (A3 X)].
Qed.

Lemma find_none_csub c c' x : csub c c' -> find_task (c_tasks c) x = None -> find_task (c_tasks c') x = None.
Proof.
  intros [_ A] Hn. destruct (find_task (c_tasks c') x) as [t'|] eqn:E; [|reflexivity]. exfalso.
  assert (X : cget c' x = Some (ci t')) by (unfold cget; rewrite E; reflexivity).
  apply A in X. unfold cget in X. rewrite Hn in X. discriminate.
Qed.

Definition aborted_in (x : tid) (E : list out) : Prop := exists ids, In x ids /\ In (OEv (EvAborted ids)) E.

Definition kept (x : tid) (t : task) (c' : core) (E : list out) : Prop :=
  (exists t', find_task (c_tasks c') x = Some t' /\ ci t' = ci t) \/
  (find_task (c_tasks c') x = None /\ aborted_in x E).

Lemma task_failed_facts s id k s' t :
  HOK (hq_of s) -> CB s -> find_task (c_tasks (core_of s)) id = Some t -> task_failed s None id k = Ok s' ->
  HOK (hq_of s') /\ CB s' /\
  exists E, snd s' = snd s ++ E /\ In (OEv (EvFailed id k)) E /\
    find_task (c_tasks (core_of s')) id = None /\
    (forall x tx, x <> id -> find_task (c_tasks (core_of s)) x = Some tx -> kept x tx (core_of s') E) /\
    (forall x, find_task (c_tasks (core_of s)) x = None -> find_task (c_tasks (core_of s')) x = None).
Proof.
  intros Hok HC Ef H.
  pose proof (task_failed_ok _ _ _ _ _ Hok H) as Hok'.
  pose proof (task_failed_CB _ _ _ _ _ Hok HC H) as HC'.
  pose proof (task_failed_csub _ _ _ _ _ (proj2 (TS_CS _) (cb_s _ HC)) H) as Hsub.
  split; [exact Hok'|]. split; [exact HC'|].
  unfold task_failed in H. rewrite Ef in H.
  apply bind_ok in H. destruct H as (rq & _ & H). apply bind_ok in H. destruct H as (c1 & _ & H).
  apply bind_ok in H. destruct H as (csm & _ & H). apply bind_ok in H. destruct H as (c2 & _ & H).
  apply bind_ok in H. destruct H as ([c3 stt] & _ & H). apply bind_ok in H. destruct H as (u & _ & H).
  apply bind_ok in H. destruct H as ([s1 cancel_ids] & H4 & H).
  destruct (process_task_failed_active (st_core s c3) id csm k s1 cancel_ids Hok H4) as (_ & A4 & _ & _).
  destruct (process_task_failed_out _ _ _ _ _ _ H4) as (E & HE & Hfail & Hab & Hcan).
  assert (Hq : hq_of s' = hq_of s1 /\ snd s' = snd s1).
  { destruct cancel_ids; [inversion H; subst; split; reflexivity|]. split; [eapply on_cancel_tasks_hq; exact H | eapply on_cancel_tasks_snd; exact H]. }
  destruct Hq as [Hq Hsnd].
  assert (Act : forall x, BijBase.active s' x <-> BijBase.active s x /\ ~ In x csm /\ x <> id /\ ~ In x cancel_ids).
  { intros x. rewrite (active_same s1 s') by (apply jt_same; exact Hq). rewrite A4.
    rewrite (active_same s (st_core s c3)) by (intros; reflexivity). reflexivity. }
  assert (Hgone : forall x, find_task (c_tasks (core_of s')) x = None -> ~ BijBase.active s' x).
  { intros x Hn Ha. apply (cb_b _ HC') in Ha. apply find_task_present in Ha. destruct Ha as (tx & Hx). unfold K in Hx. congruence. }
  exists E. split; [rewrite Hsnd, HE; reflexivity|]. split; [exact Hfail|]. split; [|split].
  - destruct (find_task (c_tasks (core_of s')) id) as [t'|] eqn:E'; [|reflexivity]. exfalso.
    assert (Ha : BijBase.active s' id) by (apply (cb_b _ HC'); apply find_task_present; exists t'; exact E').
    apply Act in Ha. destruct Ha as (_ & _ & Hne & _). apply Hne. reflexivity.
  - intros x tx Hne Hx. destruct (find_task (c_tasks (core_of s')) x) as [tx'|] eqn:E'.
    + left. exists tx'. split; [exact E'|].
      assert (X : cget (core_of s') x = Some (ci tx')) by (unfold cget; rewrite E'; reflexivity).
      apply (proj2 Hsub) in X. unfold cget in X. rewrite Hx in X. cbn [option_map] in X. congruence.
    + right. split; [exact E'|].
      assert (Ha : BijBase.active s x) by (apply (cb_b _ HC); apply find_task_present; exists tx; exact Hx).
      pose proof (Hgone x E') as Hna. rewrite Act in Hna.
      destruct (in_dec tid_dec x csm) as [I1|N1].
      * exists csm. split; [exact I1|]. apply Hab. intros ->. destruct I1.
      * destruct (in_dec tid_dec x cancel_ids) as [I2|N2]; [|exfalso; apply Hna; auto].
        exists cancel_ids. split; [exact I2|]. apply Hcan. intros ->. destruct I2.
  - intros x Hn. eapply find_none_csub; eassumption.
Qed.

Definition limit_hit (t : task) : bool :=
  match t_climit t with CNever => true | CMax n => N.leb n (t_crash t + 1) | CUnl => false end.
Definition fail_kind (t : task) : failkind :=
  match t_climit t with CNever => FNeverRestart | _ => FCrashLimit end.

(** Outcome for a task that was running on the lost worker: counted (+1) and kept, or counted and
    failed because the limit is reached, or aborted. *)
Definition counted (x : tid) (t : task) (c' : core) (E : list out) : Prop :=
  (limit_hit t = false /\ exists t', find_task (c_tasks c') x = Some t' /\ t_crash t' = t_crash t + 1 /\ t_climit t' = t_climit t) \/
  (find_task (c_tasks c') x = None /\
   ((limit_hit t = true /\ In (OEv (EvFailed x (fail_kind t))) E) \/ aborted_in x E)).

Lemma aborted_in_incl x E E' : incl E E' -> aborted_in x E -> aborted_in x E'.
Proof. intros I (ids & A & B). exists ids. split; [exact A | apply I; exact B]. Qed.

Lemma kept_incl x t c E E' : incl E E' -> kept x t c E -> kept x t c E'.
Proof. intros I [H|[H1 H2]]; [left; exact H | right; split; [exact H1 | eapply aborted_in_incl; eassumption]]. Qed.

Lemma counted_incl x t c E E' : incl E E' -> counted x t c E -> counted x t c E'.
Proof.
  intros I [H|[H1 [[H2 H3]|H2]]]; [left; exact H | right; split; [exact H1 | left; split; [exact H2 | apply I; exact H3]] |
                                    right; split; [exact H1 | right; eapply aborted_in_incl; eassumption]].
Qed.

Lemma counted_ci x t1 t c E : ci t1 = ci t -> counted x t1 c E -> counted x t c E.
Proof.
  unfold ci. intros Hc. inversion Hc as [[Hcr Hcl]]. unfold counted, limit_hit, fail_kind. rewrite Hcr, Hcl. auto.
Qed.

Lemma kept_ci x t1 t c E : ci t1 = ci t -> kept x t1 c E -> kept x t c E.
Proof. intros Hc [(t' & A & B)|H]; [left; exists t'; split; [exact A | congruence] | right; exact H]. Qed.

Definition bumped (s : st) (t : task) : st :=
  match t_climit t with
  | CNever => s
  | _ => st_core s (upd_task (core_of s) (with_crash t (t_crash t + 1)))
  end.

Lemma lost_fail_running_cons s reason id l t :
  reason_is_failure reason = true -> find_task (c_tasks (core_of s)) id = Some t ->
  lost_fail_running s reason (id :: l) =
  if limit_hit t then do s' <- task_failed (bumped s t) None id (fail_kind t); lost_fail_running s' reason l
  else lost_fail_running (bumped s t) reason l.
Proof.
  intros Hrf Ef. cbn [lost_fail_running]. rewrite Ef. unfold limit_hit, fail_kind, bumped, increment_crash_counter.
  destruct (t_climit t); [reflexivity | |]; rewrite Hrf; cbn [t_crash with_crash]; [|reflexivity].
  destruct (N.leb n (t_crash t + 1)); reflexivity.
Qed.

Lemma lost_fail_head s id t s1 :
  HOK (hq_of s) -> CB s -> find_task (c_tasks (core_of s)) id = Some t ->
  (if limit_hit t then task_failed (bumped s t) None id (fail_kind t) else Ok (bumped s t)) = Ok s1 ->
  HOK (hq_of s1) /\ CB s1 /\
  exists E, snd s1 = snd s ++ E /\
    ((limit_hit t = true /\ find_task (c_tasks (core_of s1)) id = None /\ In (OEv (EvFailed id (fail_kind t))) E) \/
     (limit_hit t = false /\ exists t1, find_task (c_tasks (core_of s1)) id = Some t1 /\ t_crash t1 = t_crash t + 1 /\ t_climit t1 = t_climit t)) /\
    (forall x tx, x <> id -> find_task (c_tasks (core_of s)) x = Some tx -> kept x tx (core_of s1) E) /\
    (forall x, find_task (c_tasks (core_of s)) x = None -> find_task (c_tasks (core_of s1)) x = None).
Proof.
  intros Hok HC Ef H. destruct (find_task_some _ _ _ Ef) as [_ Hid].
  (* [bumped s t] agrees with [s] except for the crash counter of [id] *)
  set (t0 := match t_climit t with CNever => t | _ => with_crash t (t_crash t + 1) end).
  assert (Hf0 : forall x, find_task (c_tasks (core_of (bumped s t))) x = if tid_eqb x id then Some t0 else find_task (c_tasks (core_of s)) x).
  { intros x. unfold bumped, t0. destruct (t_climit t);
      [destruct (tid_eqb x id) eqn:E; [apply tid_eqb_eq in E; subst x; exact Ef | reflexivity] | |];
      cbn; rewrite find_set_task; cbn [t_id with_crash]; rewrite Hid; reflexivity. }
  assert (HC0 : CB (bumped s t)).
  { unfold bumped. destruct (t_climit t); [exact HC | |];
      (eapply CB_same; [| |exact HC]; [|reflexivity]; unfold K; cbn;
       apply (upd_task_frame (core_of s) id t); [exact (cb_s _ HC) | exact Ef | reflexivity | reflexivity]). }
  assert (Hq0 : hq_of (bumped s t) = hq_of s /\ snd (bumped s t) = snd s) by (unfold bumped; destruct (t_climit t); split; reflexivity).
  assert (Hoth : forall x, x <> id -> find_task (c_tasks (core_of (bumped s t))) x = find_task (c_tasks (core_of s)) x).
  { intros x Hne. rewrite Hf0. apply tid_eqb_neq in Hne. rewrite Hne. reflexivity. }
  assert (Hnone0 : forall x, find_task (c_tasks (core_of s)) x = None -> find_task (c_tasks (core_of (bumped s t))) x = None).
  { intros x Hx. rewrite Hf0. destruct (tid_eqb x id) eqn:E; [apply tid_eqb_eq in E; subst x; congruence | exact Hx]. }
  assert (Hid0 : find_task (c_tasks (core_of (bumped s t))) id = Some t0) by (rewrite Hf0, (proj2 (tid_eqb_eq id id) eq_refl); reflexivity).
  rewrite <- (proj1 Hq0) in Hok. destruct (limit_hit t) eqn:Hl.
  - destruct (task_failed_facts _ _ _ _ _ Hok HC0 Hid0 H) as (O1 & C1 & E & HE & F1 & F2 & F3 & F4).
    split; [exact O1|]. split; [exact C1|]. exists E. split; [rewrite HE, (proj2 Hq0); reflexivity|].
    split; [left; auto|]. split.
    + intros x tx Hne Hx. apply (F3 x tx Hne). rewrite (Hoth x Hne). exact Hx.
    + intros x Hx. apply F4, Hnone0, Hx.
  - injection H as <-. split; [exact Hok|]. split; [exact HC0|]. exists []. split; [rewrite app_nil_r; apply Hq0|].
    split; [|split; [|exact Hnone0]].
    + right. split; [reflexivity|]. exists t0. split; [exact Hid0|].
      unfold t0. unfold limit_hit in Hl. destruct (t_climit t) eqn:Ecl; [discriminate | |]; (split; [reflexivity | exact Ecl]).
    + intros x tx Hne Hx. left. exists tx. split; [rewrite (Hoth x Hne); exact Hx | reflexivity].
Qed.

Lemma lost_fail_running_counts l : forall s reason s',
  NoDup l -> HOK (hq_of s) -> CB s -> reason_is_failure reason = true -> lost_fail_running s reason l = Ok s' ->
  exists E, snd s' = snd s ++ E /\
    (forall x t, In x l -> find_task (c_tasks (core_of s)) x = Some t -> counted x t (core_of s') E) /\
    (forall x t, ~ In x l -> find_task (c_tasks (core_of s)) x = Some t -> kept x t (core_of s') E) /\
    (forall x, find_task (c_tasks (core_of s)) x = None -> find_task (c_tasks (core_of s')) x = None).
Proof.
  induction l as [|id r IH]; intros s reason s' Hnd Hok HC Hrf H.
  - cbn in H. inversion H; subst. exists []. split; [rewrite app_nil_r; reflexivity|].
    split; [intros x t []|]. split; [intros x t _ Hx; left; exists t; auto | auto].
  - inversion Hnd as [|? ? Hni Hnr]; subst.
    destruct (find_task (c_tasks (core_of s)) id) as [t|] eqn:Ef.
    2:{ cbn [lost_fail_running] in H. rewrite Ef in H.
        destruct (IH _ _ _ Hnr Hok HC Hrf H) as (E & HE & I1 & I2 & I3). exists E. split; [exact HE|]. split; [|split; [|exact I3]].
        - intros x tx [<-|Hx] Hf; [congruence | apply I1; assumption].
        - intros x tx Hx Hf. apply I2; [intros X; apply Hx; right; exact X | exact Hf]. }
    rewrite (lost_fail_running_cons _ _ _ _ _ Hrf Ef) in H.
    assert (Hhead : exists s1, (if limit_hit t then task_failed (bumped s t) None id (fail_kind t) else Ok (bumped s t)) = Ok s1 /\
                               lost_fail_running s1 reason r = Ok s').
    { destruct (limit_hit t); [apply bind_ok in H; exact H | eauto]. }
    destruct Hhead as (s1 & Hh & Ht). clear H.
    destruct (lost_fail_head _ _ _ _ Hok HC Ef Hh) as (Hok1 & HC1 & E1 & HE1 & Hid & Hoth & Hnone).
    destruct (IH _ _ _ Hnr Hok1 HC1 Hrf Ht) as (E2 & HE2 & I1 & I2 & I3).
    exists (E1 ++ E2). split; [rewrite HE2, HE1, app_assoc; reflexivity|].
    assert (L1 : incl E1 (E1 ++ E2)) by (apply incl_appl, incl_refl).
    assert (L2 : incl E2 (E1 ++ E2)) by (apply incl_appr, incl_refl).
    split; [|split].
    + intros x tx Hin Hx. destruct (tid_dec x id) as [->|Hne].
      * rewrite Ef in Hx. inversion Hx; subst tx.
        destruct Hid as [(Hl & Hn1 & Hev)|(Hl & t1 & Hf1 & Hcr & Hcl)].
        -- right. split; [apply I3; exact Hn1|]. left. split; [exact Hl | apply L1; exact Hev].
        -- destruct (I2 id t1 Hni Hf1) as [(t' & A & B)|[A B]].
           ++ left. split; [exact Hl|]. exists t'. split; [exact A|]. unfold ci in B. inversion B. split; congruence.
           ++ right. split; [exact A|]. right. eapply aborted_in_incl; [exact L2 | exact B].
      * destruct Hin as [->|Hin]; [contradiction|].
        destruct (Hoth x tx Hne Hx) as [(t1 & A & B)|[A B]].
        -- eapply counted_ci; [exact B|]. eapply counted_incl; [exact L2|]. apply I1; assumption.
        -- right. split; [apply I3; exact A|]. right. eapply aborted_in_incl; [exact L1 | exact B].
    + intros x tx Hni' Hx.
      assert (Hne : x <> id) by (intros ->; apply Hni'; left; reflexivity).
      assert (Hnr' : ~ In x r) by (intros X; apply Hni'; right; exact X).
      destruct (Hoth x tx Hne Hx) as [(t1 & A & B)|[A B]].
      * eapply kept_ci; [exact B|]. eapply kept_incl; [exact L2|]. apply I2; assumption.
      * right. split; [apply I3; exact A|]. eapply aborted_in_incl; [exact L1 | exact B].
    + intros x Hx. apply I3. apply Hnone. exact Hx.
Qed.
