(** The queue invariant, part 3: the inductive invariant [QV] and the generic lemmas about the three
    kinds of atomic change (queues change / one task changes / a task is added or deleted).

    [QV ex Z ts qs rs rqs]: tasks [ts], queues [qs], redirects [rs], request definitions [rqs].
    Every task sits exactly where its state says ([nat_place]), except the ids for which the
    exception map [ex] prescribes a place (tasks in the middle of a multi-step transition:
    moved to the ready queue but not yet retracted, taken from the queue but not yet assigned,
    moved to the prefill set but not yet marked Prefilled, dequeued but not yet removed).
    [Z]: the ids that may be Finished (the task being finished, until it is removed). *)
From HQ Require Import Base.Prelude Cluster.Types Cluster.Core Cluster.Reactor Cluster.Worker Cluster.Server Cluster.Sys Cluster.Monitors Cluster.ProofsJob Cluster.ProofsMore Cluster.ProofsStep Cluster.BijBase Cluster.BijCore Cluster.BijHq Cluster.BijSt Cluster.BijReact Cluster.FrameGen Cluster.CrashFrame Cluster.InvQBase Cluster.InvQTake.
From HQ Require Import Cluster.ModelFacts.
From Coq Require Import ZArith Lia Sorting.Sorted.
Local Open Scope N_scope.

Arguments N.add : simpl never.
Arguments N.sub : simpl never.

Definition RSorted (rs : list (tid * (wid * N))) : Prop := StronglySorted tlt (map fst rs).

Definition nat_place (rs : list (tid * (wid * N))) (id : tid) (st : tstate) : place :=
  match st with
  | Waiting n => if N.eqb n 0 then Ready else Nowhere
  | Prefilled _ => Prefill
  | Retracting _ => match find_redirect rs id with Some _ => Nowhere | None => Ready end
  | _ => Nowhere
  end.
Definition exn := tid -> option place.
Definition exp_place (ex : exn) rs (id : tid) (st : tstate) : place :=
  match ex id with Some p => p | None => nat_place rs id st end.

Definition none : exn := fun _ => None.
Definition exL (pl : place) (l : list tid) (base : exn) : exn := fun x => if tid_mem x l then Some pl else base x.
Definition exU (base : exn) (id : tid) (pl : place) : exn := fun x => if tid_eqb x id then Some pl else base x.
Definition exR (base : exn) (id : tid) : exn := fun x => if tid_eqb x id then None else base x.

Lemma nat_place_red rs rs' x st : find_redirect rs' x = find_redirect rs x -> nat_place rs' x st = nat_place rs x st.
Proof. intros E. unfold nat_place. rewrite E. reflexivity. Qed.

Record QV (ex : exn) (Z : list tid) (ts : list task) (qs : list queue) (rs : list (tid * (wid * N))) (rqs : list rqdef) : Prop := mkQV {
  qv_ts : StronglySorted tlt (map t_id ts);
  qv_rs : RSorted rs;
  qv_len : length qs = length rqs;
  qv_wf : Forall WFQ qs;
  qv_rq : forall id t, find_task ts id = Some t -> (N.to_nat (t_rq t) < length qs)%nat;
  qv_task : forall id t q, find_task ts id = Some t -> nth_error qs (N.to_nat (t_rq t)) = Some q ->
            placed q (exp_place ex rs id (t_state t)) (t_prio t) id;
  qv_live : forall i q x, nth_error qs i = Some q -> member q x -> exists t, find_task ts x = Some t /\ N.to_nat (t_rq t) = i;
  qv_red : forall id v, find_redirect rs id = Some v ->
           ex id = None /\ exists t w, find_task ts id = Some t /\ t_state t = Retracting w;
  qv_fin : forall id t, find_task ts id = Some t -> t_state t = Finished -> In id Z
}.

Definition QI (ex : exn) (Z : list tid) (c : core) : Prop := QV ex Z (c_tasks c) (c_queues c) (c_redirects c) (c_rqs c).

Lemma find_task_id ts id t : find_task ts id = Some t -> t_id t = id.
Proof. intros H. apply (find_task_some _ _ _ H). Qed.

Lemma QV_queue ex Z ts qs rs rqs id t : QV ex Z ts qs rs rqs -> find_task ts id = Some t ->
  exists q, nth_error qs (N.to_nat (t_rq t)) = Some q /\ WFQ q /\ placed q (exp_place ex rs id (t_state t)) (t_prio t) id.
Proof.
  intros V Hf. destruct (nth_error_ex qs _ (qv_rq _ _ _ _ _ _ V _ _ Hf)) as (q & Hq).
  exists q. split; [exact Hq | split; [eapply nth_error_Forall; [exact (qv_wf _ _ _ _ _ _ V) | exact Hq] | eapply qv_task; eassumption]].
Qed.

Lemma QV_no_redirect ex Z ts qs rs rqs id t : QV ex Z ts qs rs rqs -> find_task ts id = Some t ->
  (forall w, t_state t <> Retracting w) -> find_redirect rs id = None.
Proof.
  intros V Hf Hn. destruct (find_redirect rs id) as [v|] eqn:E; [|reflexivity].
  destruct (qv_red _ _ _ _ _ _ V _ _ E) as (_ & t0 & w & Hf0 & Hst). rewrite Hf in Hf0. inversion Hf0; subst. exfalso. exact (Hn _ Hst).
Qed.

Lemma QV_ex_change ex ex' Z ts qs rs rqs :
  QV ex Z ts qs rs rqs ->
  (forall x t, find_task ts x = Some t -> exp_place ex' rs x (t_state t) = exp_place ex rs x (t_state t)) ->
  (forall x v, find_redirect rs x = Some v -> ex' x = None) ->
  QV ex' Z ts qs rs rqs.
Proof.
  intros [A1 A2 A3 A4 A5 A6 A7 A8 A9] E R. constructor; auto.
  - intros id t q Hf Hq. rewrite (E _ _ Hf). eapply A6; eassumption.
  - intros id v Hv. split; [eapply R; exact Hv | apply (A8 _ _ Hv)].
Qed.

Lemma QV_ext ex ex' Z ts qs rs rqs :
  QV ex Z ts qs rs rqs -> (forall x t, find_task ts x = Some t -> ex' x = ex x) -> QV ex' Z ts qs rs rqs.
Proof.
  intros V E. eapply QV_ex_change; [exact V | |].
  - intros x t Hf. unfold exp_place. rewrite (E _ _ Hf). reflexivity.
  - intros x v Hv. destruct (qv_red _ _ _ _ _ _ V _ _ Hv) as (En & t & w & Hf & _). rewrite (E _ _ Hf). exact En.
Qed.

Lemma QV_Z ex Z Z' ts qs rs rqs : QV ex Z ts qs rs rqs -> (forall x, In x Z -> In x Z') -> QV ex Z' ts qs rs rqs.
Proof. intros [A1 A2 A3 A4 A5 A6 A7 A8 A9] H. constructor; auto. intros id t Hf Hs. apply H. eapply A9; eassumption. Qed.

Lemma QV_queues ex ex' Z ts qs qs' rs rqs :
  QV ex Z ts qs rs rqs -> length qs' = length qs -> Forall WFQ qs' ->
  (forall i q q' x, nth_error qs i = Some q -> nth_error qs' i = Some q' -> member q' x ->
     member q x \/ exists t, find_task ts x = Some t /\ N.to_nat (t_rq t) = i) ->
  (forall id t q q', find_task ts id = Some t -> nth_error qs (N.to_nat (t_rq t)) = Some q -> nth_error qs' (N.to_nat (t_rq t)) = Some q' ->
     placed q (exp_place ex rs id (t_state t)) (t_prio t) id -> placed q' (exp_place ex' rs id (t_state t)) (t_prio t) id) ->
  (forall id v, find_redirect rs id = Some v -> ex' id = None) ->
  QV ex' Z ts qs' rs rqs.
Proof.
  intros V L W M P R. destruct V as [A1 A2 A3 A4 A5 A6 A7 A8 A9]. constructor; auto.
  - congruence.
  - intros id t Hf. rewrite L. eapply A5; exact Hf.
  - intros id t q' Hf Hq'. destruct (nth_error_ex qs _ (A5 _ _ Hf)) as (q & Hq).
    eapply P; [exact Hf | exact Hq | exact Hq' | eapply A6; eassumption].
  - intros i q' x Hq' Hm. assert (Hi : (i < length qs)%nat) by (rewrite <- L; eapply nth_error_lt; exact Hq').
    destruct (nth_error_ex qs _ Hi) as (q & Hq). destruct (M _ _ _ _ Hq Hq' Hm) as [Hm0|Ht]; [eapply A7; eassumption | exact Ht].
  - intros id v Hv. split; [eapply R; exact Hv | apply (A8 _ _ Hv)].
Qed.

Lemma QV_queue1 ex ex' Z ts qs rs rqs i q q' :
  QV ex Z ts qs rs rqs -> nth_error qs i = Some q -> WFQ q' ->
  (forall x, member q' x -> member q x \/ exists t, find_task ts x = Some t /\ N.to_nat (t_rq t) = i) ->
  (forall id t, find_task ts id = Some t -> N.to_nat (t_rq t) = i ->
     placed q (exp_place ex rs id (t_state t)) (t_prio t) id -> placed q' (exp_place ex' rs id (t_state t)) (t_prio t) id) ->
  (forall id t, find_task ts id = Some t -> N.to_nat (t_rq t) <> i -> exp_place ex' rs id (t_state t) = exp_place ex rs id (t_state t)) ->
  (forall id v, find_redirect rs id = Some v -> ex' id = None) ->
  QV ex' Z ts (set_queue qs i q') rs rqs.
Proof.
  intros V Hq W M P O R. eapply QV_queues; [exact V | apply set_queue_length | apply set_queue_Forall; [exact (qv_wf _ _ _ _ _ _ V) | exact W] | | | exact R].
  - intros j q0 q0' x H0 H0' Hm. destruct (Nat.eq_dec i j) as [<-|Hne].
    + rewrite (nth_set_queue_same _ _ _ _ Hq) in H0'. inversion H0'; subst. rewrite Hq in H0. inversion H0; subst. apply M. exact Hm.
    + rewrite (nth_set_queue_other _ _ _ _ Hne) in H0'. rewrite H0 in H0'. inversion H0'; subst. left. exact Hm.
  - intros id t q0 q0' Hf H0 H0' Hp. destruct (Nat.eq_dec (N.to_nat (t_rq t)) i) as [E|Hne].
    + rewrite E in *. rewrite (nth_set_queue_same _ _ _ _ Hq) in H0'. inversion H0'; subst. rewrite Hq in H0. inversion H0; subst.
      apply P; auto.
    + rewrite (nth_set_queue_other _ _ _ _ (not_eq_sym Hne)) in H0'. rewrite H0 in H0'. inversion H0'; subst.
      rewrite (O _ _ Hf Hne). exact Hp.
Qed.

Lemma QV_queue1id ex Z ts qs rs rqs id t q q' pl :
  QV ex Z ts qs rs rqs -> find_task ts id = Some t -> nth_error qs (N.to_nat (t_rq t)) = Some q -> WFQ q' ->
  (forall x, x <> id -> forall p, RdyAt q' p x <-> RdyAt q p x) ->
  (forall x, x <> id -> forall p, PfAt q' p x <-> PfAt q p x) ->
  placed q' pl (t_prio t) id -> find_redirect rs id = None ->
  QV (exU ex id pl) Z ts (set_queue qs (N.to_nat (t_rq t)) q') rs rqs.
Proof.
  intros V Hf Hq W HR HP Hpl Hred.
  assert (Eo : forall x, x <> id -> exU ex id pl x = ex x).
  { intros x Hne. unfold exU. apply tid_eqb_neq in Hne. rewrite Hne. reflexivity. }
  eapply QV_queue1; [exact V | exact Hq | exact W | | | |].
  - intros x Hm. destruct (tid_dec x id) as [->|Hne]; [right; exists t; auto|]. left.
    destruct Hm as (p & [M|M]); exists p; [left; apply (HR _ Hne); exact M | right; apply (HP _ Hne); exact M].
  - intros x t0 Hf0 Hrq Hp. destruct (tid_dec x id) as [->|Hne].
    + rewrite Hf in Hf0. inversion Hf0; subst. unfold exp_place, exU. rewrite (proj2 (tid_eqb_eq id id) eq_refl). exact Hpl.
    + unfold exp_place. rewrite (Eo _ Hne). fold (exp_place ex rs x (t_state t0)).
      eapply placed_same; [apply (HR _ Hne) | apply (HP _ Hne) | exact Hp].
  - intros x t0 Hf0 Hrq. destruct (tid_dec x id) as [->|Hne]; [rewrite Hf in Hf0; inversion Hf0; subst; congruence|].
    unfold exp_place. rewrite (Eo _ Hne). reflexivity.
  - intros x v Hv. destruct (tid_dec x id) as [->|Hne]; [congruence|]. rewrite (Eo _ Hne). apply (qv_red _ _ _ _ _ _ V _ _ Hv).
Qed.

Lemma QV_task ex ex' Z ts qs rs rs' rqs id t t' :
  QV ex Z ts qs rs rqs -> find_task ts id = Some t ->
  t_id t' = id -> t_rq t' = t_rq t -> t_prio t' = t_prio t ->
  RSorted rs' -> (forall x, x <> id -> find_redirect rs' x = find_redirect rs x) ->
  (forall x, x <> id -> ex' x = ex x) ->
  exp_place ex' rs' id (t_state t') = exp_place ex rs id (t_state t) ->
  (forall v, find_redirect rs' id = Some v -> ex' id = None /\ exists w, t_state t' = Retracting w) ->
  (t_state t' = Finished -> In id Z) ->
  QV ex' Z (set_task ts t') qs rs' rqs.
Proof.
  intros V Hf Hid Hrq Hpr Hrs Hred Hex Hpl Hrd Hfin. destruct V as [A1 A2 A3 A4 A5 A6 A7 A8 A9].
  assert (Hfind : forall x, find_task (set_task ts t') x = if tid_eqb x id then Some t' else find_task ts x).
  { intros x. rewrite find_set_task, Hid. reflexivity. }
  constructor; auto.
  - rewrite (set_task_ids _ _ t A1); [exact A1 | rewrite Hid; exact Hf].
  - intros x t0 H0. rewrite Hfind in H0. destruct (tid_eqb x id) eqn:E.
    + inversion H0; subst. rewrite Hrq. eapply A5; exact Hf.
    + eapply A5; exact H0.
  - intros x t0 q H0 Hq. rewrite Hfind in H0. destruct (tid_eqb x id) eqn:E.
    + apply tid_eqb_eq in E. subst x. inversion H0; subst t0. rewrite Hpl, Hpr. rewrite Hrq in Hq. eapply A6; eassumption.
    + apply tid_eqb_neq in E. unfold exp_place. rewrite (Hex _ E), (nat_place_red rs rs' x _ (Hred _ E)).
      eapply A6; eassumption.
  - intros i q x Hq Hm. destruct (A7 _ _ _ Hq Hm) as (t0 & H0 & Hi). rewrite Hfind. destruct (tid_eqb x id) eqn:E.
    + apply tid_eqb_eq in E. subst x. rewrite Hf in H0. inversion H0; subst t0. exists t'. split; [reflexivity | rewrite Hrq; exact Hi].
    + exists t0. auto.
  - intros x v Hv. destruct (tid_eqb x id) eqn:E.
    + apply tid_eqb_eq in E. subst x. destruct (Hrd _ Hv) as (En & w & Hw). split; [exact En|]. exists t', w. rewrite Hfind, (proj2 (tid_eqb_eq id id) eq_refl). auto.
    + pose proof E as E'. apply tid_eqb_neq in E'. rewrite (Hred _ E') in Hv. destruct (A8 _ _ Hv) as (En & t0 & w & H0 & Hw).
      split; [rewrite (Hex _ E'); exact En|]. exists t0, w. rewrite Hfind, E. auto.
  - intros x t0 H0 Hs. rewrite Hfind in H0. destruct (tid_eqb x id) eqn:E.
    + apply tid_eqb_eq in E. subst x. inversion H0; subst. auto.
    + eapply A9; eassumption.
Qed.

Lemma QV_task0 ex ex' Z ts qs rs rqs id t t' :
  QV ex Z ts qs rs rqs -> find_task ts id = Some t ->
  t_id t' = id -> t_rq t' = t_rq t -> t_prio t' = t_prio t ->
  (forall x, x <> id -> ex' x = ex x) ->
  exp_place ex' rs id (t_state t') = exp_place ex rs id (t_state t) ->
  (forall v, find_redirect rs id = Some v -> ex' id = None /\ exists w, t_state t' = Retracting w) ->
  (t_state t' = Finished -> In id Z) ->
  QV ex' Z (set_task ts t') qs rs rqs.
Proof.
  intros V Hf Hid Hrq Hpr Hex Hpl Hrd Hfin.
  eapply QV_task; try eassumption; [exact (qv_rs _ _ _ _ _ _ V) | reflexivity].
Qed.

Lemma QV_new ex Z ts qs rs rqs t :
  QV ex Z ts qs rs rqs -> find_task ts (t_id t) = None -> (N.to_nat (t_rq t) < length qs)%nat ->
  t_state t <> Finished ->
  QV (exU ex (t_id t) Nowhere) Z (set_task ts t) qs rs rqs.
Proof.
  intros V Hn Hrq Hfin. destruct V as [A1 A2 A3 A4 A5 A6 A7 A8 A9].
  assert (Hnm : forall i q, nth_error qs i = Some q -> ~ member q (t_id t)).
  { intros i q Hq Hm. destruct (A7 _ _ _ Hq Hm) as (t0 & H0 & _). congruence. }
  constructor; auto.
  - apply set_task_sorted; assumption.
  - intros x t0 H0. rewrite find_set_task in H0. destruct (tid_eqb x (t_id t)); [inversion H0; subst; exact Hrq | eapply A5; exact H0].
  - intros x t0 q H0 Hq. rewrite find_set_task in H0. unfold exp_place, exU. destruct (tid_eqb x (t_id t)) eqn:E.
    + apply tid_eqb_eq in E. subst x. inversion H0; subst t0. apply placed_not_member. eapply Hnm; exact Hq.
    + fold (exp_place ex rs x (t_state t0)). eapply A6; eassumption.
  - intros i q x Hq Hm. destruct (A7 _ _ _ Hq Hm) as (t0 & H0 & Hi). rewrite find_set_task. destruct (tid_eqb x (t_id t)) eqn:E.
    + apply tid_eqb_eq in E. subst x. congruence.
    + eauto.
  - intros x v Hv. destruct (A8 _ _ Hv) as (En & t0 & w & H0 & Hw). unfold exU. destruct (tid_eqb x (t_id t)) eqn:E.
    + apply tid_eqb_eq in E. subst x. congruence.
    + split; [exact En|]. exists t0, w. rewrite find_set_task, E. auto.
  - intros x t0 H0 Hs. rewrite find_set_task in H0. destruct (tid_eqb x (t_id t)) eqn:E; [inversion H0; subst; contradiction | eapply A9; eassumption].
Qed.

Lemma QV_del ex Z Z' ts qs rs rqs id t :
  QV ex Z ts qs rs rqs -> find_task ts id = Some t ->
  exp_place ex rs id (t_state t) = Nowhere -> find_redirect rs id = None ->
  (forall x, In x Z -> x <> id -> In x Z') ->
  QV ex Z' (del_task ts id) qs rs rqs.
Proof.
  intros V Hf Hpl Hred HZ. destruct V as [A1 A2 A3 A4 A5 A6 A7 A8 A9].
  assert (Hfind : forall x, find_task (del_task ts id) x = if tid_eqb x id then None else find_task ts x) by (intros x; apply find_del_task; exact A1).
  constructor; auto.
  - apply (del_task_keys ts id A1).
  - intros x t0 H0. rewrite Hfind in H0. destruct (tid_eqb x id); [discriminate | eapply A5; exact H0].
  - intros x t0 q H0 Hq. rewrite Hfind in H0. destruct (tid_eqb x id); [discriminate | eapply A6; eassumption].
  - intros i q x Hq Hm. destruct (A7 _ _ _ Hq Hm) as (t0 & H0 & Hi). rewrite Hfind. destruct (tid_eqb x id) eqn:E; [|eauto].
    exfalso. apply tid_eqb_eq in E. subst x. rewrite Hf in H0. inversion H0; subst t0.
    rewrite <- Hi in Hq. pose proof (A6 _ _ _ Hf Hq) as Hp. rewrite Hpl in Hp. exact (placed_member _ _ _ _ Hp Hm eq_refl).
  - intros x v Hv. destruct (A8 _ _ Hv) as (En & t0 & w & H0 & Hw). split; [exact En|]. exists t0, w. rewrite Hfind.
    destruct (tid_eqb x id) eqn:E; [apply tid_eqb_eq in E; subst x; congruence | auto].
  - intros x t0 H0 Hs. rewrite Hfind in H0. destruct (tid_eqb x id) eqn:E; [discriminate|]. apply tid_eqb_neq in E. apply HZ; [eapply A9; eassumption | exact E].
Qed.

Lemma QV_new_rq ex Z ts qs rs rqs r : QV ex Z ts qs rs rqs -> QV ex Z ts (qs ++ [empty_queue]) rs (rqs ++ [r]).
Proof.
  intros [A1 A2 A3 A4 A5 A6 A7 A8 A9]. constructor; auto.
  - rewrite !app_length, A3. reflexivity.
  - apply Forall_app. split; [exact A4 | constructor; [apply WFQ_empty | constructor]].
  - intros id t Hf. rewrite app_length. specialize (A5 _ _ Hf). lia.
  - intros id t q Hf Hq. rewrite nth_error_app1 in Hq by (eapply A5; exact Hf). eapply A6; eassumption.
  - intros i q x Hq Hm. destruct (Nat.lt_ge_cases i (length qs)) as [Hi|Hi].
    + rewrite nth_error_app1 in Hq by exact Hi. eapply A7; eassumption.
    + rewrite nth_error_app2 in Hq by exact Hi. destruct (i - length qs)%nat as [|k]; [|destruct k; discriminate].
      cbn in Hq. inversion Hq; subst. exfalso. destruct Hm as (p & [(e & [] & _)|(l & Hl & _)]). discriminate.
Qed.
