(** C09 in full for the system model: NO REACHABLE PANIC.

    For every history of operations - client requests, worker connections and losses, deliveries of
    messages in both directions in any order, scheduler rounds, task ends, launch failures, timers -
    that satisfies the executable well-formedness [run_hyp] below, [run (init_sys r m) ops] is never
    a [Panic]: every operation is handled ([Ok]) or cannot occur in that state ([Disabled]: an
    unknown worker, an empty channel, a witness order that is not a permutation ...).

    [run_hyp] is the conjunction, evaluated along the run, of
      - [NoPanicU0.op_ok]: multi-node request classes carry no resource amounts; a scheduler answer
        uses variant 0, places single-node classes single-node and multi-node classes multi-node;
      - [NoPanicS7.sol_ok] on every scheduler answer (the solver's contract towards the mapping);
      - [RetractFree.sched_retract_ok]: no multi-node placement on a worker a task is being retracted
        from (the repair of finding F28);
      - the explicit ids of an array submit are pairwise distinct (true of every message that
        deserialises: the real [IntArray] is a set);
    plus [op_wf] (as many entries as explicit ids - finding F26 otherwise).  Every conjunct is
    monitored on every step of every explored history of the real implementation; nothing is
    assumed about messages in flight ([run_fresh] is derived: NoFresh.v).

    Parts: NoPanicAll.v (server operations), NoPanicU20.v (worker processes), NoPanicU29.v (worker
    messages at the server). *)
From HQ Require Import Base.Prelude Cluster.Types Cluster.Sys Cluster.BijFinal Cluster.InvAll Cluster.RetractFree Cluster.NoPanicS7 Cluster.NoPanicU0 Cluster.NoPanicU20 Cluster.NoPanicU21 Cluster.NoPanicU26 Cluster.NoPanicU29 Cluster.NoPanicAll Cluster.NoFresh.
From HQ Require Import Cluster.StepShape.
From Coq Require Import ZArith Lia.
Local Open Scope N_scope.

Definition ids_nodup (o : op) : bool :=
  match o with OpSubmit _ ids _ _ _ _ _ _ => nodupb N.eqb ids | _ => true end.

Definition hyp (s : sys) (o : op) : bool :=
  op_ok s o && op_sol_ok s o && op_retract_ok s o && ids_nodup o.

Fixpoint run_hyp (s : sys) (ops : list op) : bool :=
  match ops with
  | [] => true
  | o :: r => hyp s o && match step s o with Ok (s1, _) => run_hyp s1 r | _ => true end
  end.

Lemma run_hyp_split ops : forall s, run_hyp s ops = true ->
  ops_ok s ops = true /\ ops_sol_ok s ops = true /\ ops_retract_ok s ops = true.
Proof.
  induction ops as [|o r IH]; intros s H; [repeat split|].
  cbn [run_hyp] in H. apply andb_true_iff in H. destruct H as [Hh H].
  unfold hyp in Hh. repeat (apply andb_true_iff in Hh; destruct Hh as [Hh ?]).
  cbn [ops_ok ops_sol_ok ops_retract_ok].
  destruct (step s o) as [[s1 o1]| |].
  - destruct (IH s1 H) as (A & B & C). repeat split; apply andb_true_iff; split; assumption.
  - repeat split; apply andb_true_iff; split; try assumption; reflexivity.
  - repeat split; apply andb_true_iff; split; try assumption; reflexivity.
Qed.

Lemma run_hyp_snoc pre : forall s o s1 o1, run s pre = Ok (s1, o1) -> run_hyp s pre = true -> hyp s1 o = true ->
  run_hyp s (pre ++ [o]) = true.
Proof.
  induction pre as [|p r IH]; cbn [run run_hyp app]; intros s o s1 o1 Hr Hh Ho.
  - inversion Hr; subst. rewrite Ho. destruct (step s1 o) as [[? ?]| |]; reflexivity.
  - apply bind_ok in Hr as ([sa oa] & Ha & Hr). apply bind_ok in Hr as ([sb ob] & Hb & Hr).
    inversion Hr; subst. rewrite Ha in *. apply andb_true_iff in Hh. destruct Hh as [H1 H2]. rewrite H1. cbn [andb].
    exact (IH _ _ _ _ Hb H2 Ho).
Qed.

Theorem step_never_panics pre reserve maxfill s outs o :
  Forall op_wf pre -> run_hyp (init_sys reserve maxfill) pre = true -> run (init_sys reserve maxfill) pre = Ok (s, outs) ->
  hyp s o = true -> is_panic (step s o) = false.
Proof.
  intros Hwf Hh Hr Ho.
  destruct (run_hyp_split _ _ Hh) as (Hok & Hsol & Hret).
  unfold hyp in Ho. repeat (apply andb_true_iff in Ho; destruct Ho as [Ho ?]).
  pose proof (fresh_of_ops pre reserve maxfill s outs Hwf Hok Hr) as Hf.
  (* the operations of the server itself (for a scheduler answer [req_ok] is [op_sol_ok] by
     conversion), then the steps of a worker process; left: a submit with explicit ids and the
     delivery of a worker's message *)
  destruct o;
    try (apply (server_never_panics pre reserve maxfill s outs); try assumption; exact I);
    try (apply (worker_process_never_panics pre reserve maxfill s outs); try assumption; exact I).
  - apply (server_never_panics pre reserve maxfill s outs); try assumption; [exact I|].
    cbn [req_ok]. match goal with X : ids_nodup _ = true |- _ => cbn [ids_nodup] in X; apply (nodupb_NoDup N.eqb); [intros a b; apply N.eqb_eq | exact X] end.
  - apply (worker_messages_never_panic pre reserve maxfill s outs); assumption.
Qed.

(** An operation that is not well formed is refused: a stutter step. *)
Lemma wf_or_stutter s o : op_wf o \/ step s o = Ok (s, [OResp (RSubmitErr 6 0)]).
Proof.
  destruct o; try (left; exact I). destruct entries as [n|]; [|left; exact I].
  destruct (Nat.leb (length ids) (N.to_nat n)) eqn:H; [left; apply Nat.leb_le; exact H | right].
  apply Nat.leb_gt in H. cbn [step].
  assert (E : bad_submit_lengths ids (Some n) = true).
  { unfold bad_submit_lengths. destruct ids as [|i r]; [cbn in H; lia|].
    apply Bool.negb_true_iff. apply N.eqb_neq. intros X. apply (f_equal N.to_nat) in X. rewrite Nat2N.id in X. lia. }
  rewrite E. reflexivity.
Qed.

(** Any continuation of a reachable state.  [op_wf] is not needed of the continuation: an operation
    that is not well formed is refused, a stutter step. *)
Lemma no_panic_from_nowf ops reserve maxfill : forall pre s outs,
  Forall op_wf pre -> run_hyp (init_sys reserve maxfill) pre = true -> run (init_sys reserve maxfill) pre = Ok (s, outs) ->
  run_hyp s ops = true -> is_panic (run s ops) = false.
Proof.
  induction ops as [|o r IH]; intros pre s outs Hwp Hhp Hrp Hh; [reflexivity|].
  cbn [run_hyp] in Hh. apply andb_true_iff in Hh. destruct Hh as [Ho Hh].
  cbn [run]. destruct (wf_or_stutter s o) as [Ew|Ew].
  - pose proof (step_never_panics pre reserve maxfill s outs o Hwp Hhp Hrp Ho) as Hnp.
    destruct (step s o) as [[s1 o1]| |] eqn:Est; [|reflexivity | discriminate].
    cbn [bind].
    assert (Hnext : is_panic (run s1 r) = false).
    { apply (IH (pre ++ [o]) s1 (outs ++ o1)); [apply Forall_snoc; assumption | | eapply run_snoc; eassumption | exact Hh].
      eapply run_hyp_snoc; eassumption. }
    destruct (run s1 r) as [[s2 o2]| |]; [reflexivity | reflexivity | discriminate].
  - rewrite Ew in *. cbn [bind].
    pose proof (IH pre s outs Hwp Hhp Hrp Hh) as Hnext.
    destruct (run s r) as [[s2 o2]| |]; [reflexivity | reflexivity | discriminate].
Qed.

Theorem no_reachable_panic ops reserve maxfill :
  Forall op_wf ops -> run_hyp (init_sys reserve maxfill) ops = true -> is_panic (run (init_sys reserve maxfill) ops) = false.
Proof.
  intros _ Hh. apply (no_panic_from_nowf ops reserve maxfill [] (init_sys reserve maxfill) []); [constructor | reflexivity | reflexivity | exact Hh].
Qed.

Print Assumptions no_reachable_panic.

(** Non-vacuity: the hypotheses hold on histories with prefilling, a worker that starts a prefilled
    task on its own, retraction races, redirects, rejects, cancels, a worker loss, a launch
    failure, timers and multi-node tasks (the example histories of NoPanicU0.v), and the
    theorem's conclusion is not trivial there (the runs are [Ok], dozens of steps). *)
Example no_panic_hypotheses_satisfiable :
  Forall (fun h => run_hyp (init_sys 0 2) h = true /\ is_ok (run (init_sys 0 2) h) = true /\ Forall op_wf h)
         [h_plain; h_prefill; h_retract_race; h_redirect; h_misc; h_mn].
Proof.
  repeat constructor; try (vm_compute; reflexivity); try (cbn; lia).
Qed.

(** ... and the history of finding F28 violates exactly the clause added by its repair. *)
Example f28_history_excluded :
  run_hyp (init_sys 0 2) NoPanicU21.h102 = false /\
  ops_ok (init_sys 0 2) NoPanicU21.h102 = true /\ ops_sol_ok (init_sys 0 2) NoPanicU21.h102 = true /\
  ops_retract_ok (init_sys 0 2) NoPanicU21.h102 = false.
Proof. repeat split; vm_compute; reflexivity. Qed.
