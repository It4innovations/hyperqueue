(** Worker-set invariant, part 1: the sorted collections of the server core (id sets of a worker,
    the worker map, the redirect map) and their lookup / update laws; the shape of the client's
    submits and of [Sys.step], which every invariant of the core follows in the same way. *)
From HQ Require Import Base.Prelude Cluster.Types Cluster.Core Cluster.Reactor Cluster.Worker Cluster.Server Cluster.Sys Cluster.ProofsJob Cluster.ProofsMore Cluster.ProofsStep Cluster.BijBase Cluster.BijCore Cluster.BijHq.
From HQ Require Import Cluster.ModelFacts.
From HQ Require Import Cluster.ReactSplit.
From Coq Require Import ZArith Lia Sorting.Sorted.
Local Open Scope N_scope.

Arguments N.add : simpl never.
Arguments N.sub : simpl never.

Definition tsorted (l : list tid) : Prop := StronglySorted tlt l.

Lemma tid_mem_insert x y l : tid_mem x (tid_insert y l) = tid_eqb x y || tid_mem x l.
Proof.
  induction l as [|h t IH]; cbn [tid_insert tid_mem]; [reflexivity|].
  destruct (tid_eqb y h) eqn:E1.
  - apply tid_eqb_eq in E1. subst h. cbn [tid_mem]. destruct (tid_eqb x y); reflexivity.
  - destruct (tid_ltb y h); cbn [tid_mem]; [reflexivity|]. rewrite IH.
    destruct (tid_eqb x y), (tid_eqb x h); reflexivity.
Qed.

Lemma tid_insert_sorted x l : tsorted l -> tsorted (tid_insert x l).
Proof.
  unfold tsorted. induction l as [|h t IH]; cbn [tid_insert]; intros Hs; [constructor; constructor|].
  destruct (tid_eqb x h) eqn:E; [exact Hs|].
  destruct (tid_ltb x h) eqn:L.
  - constructor; [exact Hs|]. constructor; [exact L|]. rewrite Forall_forall. intros y Hy.
    eapply tlt_trans; [exact L|]. eapply sorted_head_lt; eassumption.
  - inversion Hs as [|? ? Hs' Hall]; subst. constructor; [apply IH; exact Hs'|].
    rewrite Forall_forall in *. intros y Hy. destruct (tid_insert_in _ _ _ Hy) as [->|Hin]; [|auto].
    apply tlt_total; [exact E | exact L].
Qed.

Lemma tid_mem_remove_other x y l : tid_eqb x y = false -> tid_mem x (tid_remove y l) = tid_mem x l.
Proof.
  intros Hne. induction l as [|h t IH]; cbn [tid_remove tid_mem]; [reflexivity|].
  destruct (tid_eqb y h) eqn:E.
  - apply tid_eqb_eq in E. subst h. rewrite Hne. reflexivity.
  - cbn [tid_mem]. rewrite IH. reflexivity.
Qed.

Lemma tid_mem_remove_same x l : tsorted l -> tid_mem x (tid_remove x l) = false.
Proof.
  unfold tsorted. induction l as [|h t IH]; cbn [tid_remove]; intros Hs; [reflexivity|].
  inversion Hs as [|? ? Hs' Hall]; subst.
  destruct (tid_eqb x h) eqn:E.
  - apply tid_eqb_eq in E. subst h. destruct (tid_mem x t) eqn:M; [|reflexivity].
    apply tid_mem_In in M. rewrite Forall_forall in Hall. exfalso. exact (tlt_irrefl _ (Hall _ M)).
  - cbn [tid_mem]. rewrite E. apply IH. exact Hs'.
Qed.

Lemma tid_mem_remove x y l : tsorted l -> tid_mem x (tid_remove y l) = negb (tid_eqb x y) && tid_mem x l.
Proof.
  intros Hs. destruct (tid_eqb x y) eqn:E.
  - apply tid_eqb_eq in E. subst y. rewrite tid_mem_remove_same by exact Hs. reflexivity.
  - rewrite tid_mem_remove_other by exact E. reflexivity.
Qed.

Lemma tid_remove_sorted x l : tsorted l -> tsorted (tid_remove x l).
Proof.
  unfold tsorted. induction l as [|h t IH]; cbn [tid_remove]; intros Hs; [constructor|].
  inversion Hs as [|? ? Hs' Hall]; subst. destruct (tid_eqb x h); [exact Hs'|].
  constructor; [apply IH; exact Hs'|]. rewrite Forall_forall in *. intros y Hy. apply Hall.
  eapply tid_remove_incl; exact Hy.
Qed.

Definition wsorted (ws : list sworker) : Prop := StronglySorted N.lt (map w_id ws).

Lemma find_set_worker ws x w : find_worker (set_worker ws x) w = if N.eqb w (w_id x) then Some x else find_worker ws w.
Proof.
  induction ws as [|h r IH]; cbn [set_worker find_worker]; [reflexivity|].
  destruct (N.eqb (w_id x) (w_id h)) eqn:E1.
  - apply N.eqb_eq in E1. cbn [find_worker]. rewrite <- E1. destruct (N.eqb w (w_id x)); reflexivity.
  - destruct (N.ltb (w_id x) (w_id h)); cbn [find_worker]; [reflexivity|].
    destruct (N.eqb w (w_id h)) eqn:E2.
    + apply N.eqb_eq in E2. subst w. rewrite N.eqb_sym, E1. reflexivity.
    + exact IH.
Qed.

Lemma set_worker_ids ws x y : In y (map w_id (set_worker ws x)) -> y = w_id x \/ In y (map w_id ws).
Proof.
  induction ws as [|h r IH]; cbn [set_worker map In]; [intros [H|[]]; auto|].
  destruct (N.eqb (w_id x) (w_id h)); cbn [map In]; [intros [H|H]; auto|].
  destruct (N.ltb (w_id x) (w_id h)); cbn [map In]; [intros [H|[H|H]]; auto|].
  intros [H|H]; [auto|]. destruct (IH H); auto.
Qed.

Lemma set_worker_sorted ws x : wsorted ws -> wsorted (set_worker ws x).
Proof.
  unfold wsorted. induction ws as [|h r IH]; cbn [set_worker map]; intros Hs; [constructor; constructor|].
  inversion Hs as [|? ? Hs' Hall]; subst.
  destruct (N.eqb (w_id x) (w_id h)) eqn:E1.
  - apply N.eqb_eq in E1. cbn [map]. rewrite E1. constructor; assumption.
  - destruct (N.ltb (w_id x) (w_id h)) eqn:E2; cbn [map].
    + apply N.ltb_lt in E2. constructor; [exact Hs|]. constructor; [exact E2|].
      rewrite Forall_forall in *. intros y Hy. specialize (Hall _ Hy). lia.
    + constructor; [apply IH; exact Hs'|]. rewrite Forall_forall in *. intros y Hy.
      destruct (set_worker_ids _ _ _ Hy) as [->|Hy']; [|apply Hall; exact Hy'].
      apply N.eqb_neq in E1. apply N.ltb_ge in E2. lia.
Qed.

Lemma find_worker_none ws w : ~ In w (map w_id ws) -> find_worker ws w = None.
Proof.
  induction ws as [|h r IH]; cbn [find_worker map In]; [reflexivity|]. intros Hn.
  destruct (N.eqb w (w_id h)) eqn:E; [apply N.eqb_eq in E; exfalso; apply Hn; left; auto|].
  apply IH. intros X. apply Hn. right. exact X.
Qed.

Lemma find_del_worker ws x w : wsorted ws -> find_worker (del_worker ws x) w = if N.eqb w x then None else find_worker ws w.
Proof.
  unfold wsorted. induction ws as [|h r IH]; cbn [del_worker find_worker map]; intros Hs; [destruct (N.eqb w x); reflexivity|].
  inversion Hs as [|? ? Hs' Hall]; subst.
  destruct (N.eqb x (w_id h)) eqn:E1.
  - apply N.eqb_eq in E1. subst x. destruct (N.eqb w (w_id h)) eqn:E2; [|reflexivity].
    apply N.eqb_eq in E2. subst w. apply find_worker_none. intros Hin. rewrite Forall_forall in Hall.
    specialize (Hall _ Hin). lia.
  - cbn [find_worker]. destruct (N.eqb w (w_id h)) eqn:E2.
    + apply N.eqb_eq in E2. subst w. rewrite N.eqb_sym, E1. reflexivity.
    + apply IH. exact Hs'.
Qed.

Lemma del_worker_incl ws x y : In y (map w_id (del_worker ws x)) -> In y (map w_id ws).
Proof.
  induction ws as [|h r IH]; cbn [del_worker map In]; [auto|].
  destruct (N.eqb x (w_id h)); [intros H; right; exact H|]. cbn [map In]. intros [H|H]; auto.
Qed.

Lemma del_worker_sorted ws x : wsorted ws -> wsorted (del_worker ws x).
Proof.
  unfold wsorted. induction ws as [|h r IH]; cbn [del_worker map]; intros Hs; [constructor|].
  inversion Hs as [|? ? Hs' Hall]; subst. destruct (N.eqb x (w_id h)); [exact Hs'|].
  cbn [map]. constructor; [apply IH; exact Hs'|]. rewrite Forall_forall in *. intros y Hy. apply Hall.
  eapply del_worker_incl; exact Hy.
Qed.

Lemma in_find_worker ws wk : wsorted ws -> In wk ws -> find_worker ws (w_id wk) = Some wk.
Proof.
  unfold wsorted. induction ws as [|h r IH]; cbn [find_worker map]; intros Hs Hin; [destruct Hin|].
  inversion Hs as [|? ? Hs' Hall]; subst. destruct Hin as [->|Hin]; [rewrite N.eqb_refl; reflexivity|].
  destruct (N.eqb (w_id wk) (w_id h)) eqn:E; [|apply IH; assumption].
  apply N.eqb_eq in E. rewrite Forall_forall in Hall. specialize (Hall (w_id wk) (in_map w_id _ _ Hin)). lia.
Qed.

Definition rsorted (rs : list (tid * (wid * N))) : Prop := StronglySorted tlt (map fst rs).

(** The cores agree on what the invariants of tasks and workers look at. *)
Definition cores_agree (c c' : core) : Prop :=
  c_tasks c' = c_tasks c /\ c_workers c' = c_workers c /\ c_redirects c' = c_redirects c /\ c_wcounter c' = c_wcounter c.

Lemma cores_agree_trans c1 c2 c3 : cores_agree c1 c2 -> cores_agree c2 c3 -> cores_agree c1 c3.
Proof. intros (A1 & B1 & C1 & D1) (A2 & B2 & C2 & D2). repeat split; congruence. Qed.

Lemma get_or_create_rq_agree s r : cores_agree (core_of s) (core_of (fst (get_or_create_rq s r))).
Proof. unfold get_or_create_rq. destruct (rq_index _ r 0); repeat split. Qed.

Lemma fold_rqs_agree rqs : forall s l s4 rqis,
  fold_left (fun acc r => let '(s, l) := acc in let '(s', i) := get_or_create_rq s r in (s', l ++ [i])) rqs (s, l) = (s4, rqis) ->
  cores_agree (core_of s) (core_of s4).
Proof.
  induction rqs as [|r rest IH]; cbn [fold_left]; intros s l s4 rqis H; [inversion H; subst; repeat split|].
  pose proof (get_or_create_rq_agree s r) as F. destruct (get_or_create_rq s r) as [s1 i].
  exact (cores_agree_trans _ _ _ F (IH _ _ _ _ H)).
Qed.

Definition submit_shape (s s' : st) : Prop :=
  core_of s' = core_of s \/
  exists s5 tasks s6, cores_agree (core_of s) (core_of s5) /\ on_new_tasks s5 tasks = Ok s6 /\ core_of s' = core_of s6.

Lemma submit_tail_shape s s4 jid ids tasks s' : cores_agree (core_of s) (core_of s4) ->
  (do j <- hq_get_job s4 jid 222;
   do j' <- attach_ids j ids;
   do s6 <- on_new_tasks (hq_set_job s4 j') tasks;
   submit_ok_resp s6 jid) = Ok s' -> submit_shape s s'.
Proof.
  intros F H. apply bind_ok in H. destruct H as (j & _ & H). apply bind_ok in H. destruct H as (j' & _ & H).
  apply bind_ok in H. destruct H as (s6 & H6 & H). right. exists (hq_set_job s4 j'), tasks, s6. split; [exact F|]. split; [exact H6|].
  unfold submit_ok_resp in H. apply bind_ok in H. destruct H as (jx & _ & H). inversion H; subst. reflexivity.
Qed.

Lemma handle_submit_array_shape s jobsel ids entries rq prio cl tlim mf s' :
  handle_submit_array s jobsel ids entries rq prio cl tlim mf = Ok s' -> submit_shape s s'.
Proof.
  intros H. unfold handle_submit_array in H.
  match type of H with (match ?x with Some _ => _ | None => _ end) = _ => destruct x end; [inversion H; subst; left; reflexivity|].
  apply bind_ok in H. destruct H as ([acc s1] & Hr & H).
  assert (E1 : core_of s1 = core_of s).
  { destruct jobsel as [j0|].
    - destruct (find_job (hq_jobs s) j0) as [j|]; [|inversion Hr; subst; reflexivity].
      destruct (negb (j_open j)); inversion Hr; subst; reflexivity.
    - inversion Hr; subst; reflexivity. }
  destruct acc as [[[jid is_new] ids']|].
  - cbv zeta in H.
    match type of H with context [get_or_create_rq ?sx rq] => set (s3 := sx) in *; pose proof (get_or_create_rq_agree s3 rq) as F;
      destruct (get_or_create_rq s3 rq) as [s4 rqi] end.
    replace (core_of s3) with (core_of s) in F by (rewrite <- E1; subst s3; destruct is_new; reflexivity).
    eapply submit_tail_shape; [exact F | exact H].
  - left. rewrite <- E1. destruct jobsel; [match type of H with (match ?x with Some _ => _ | None => _ end) = _ => destruct x end|];
      inversion H; subst; reflexivity.
Qed.

Lemma handle_submit_graph_shape s jobsel rqs ts mf s' :
  handle_submit_graph s jobsel rqs ts mf = Ok s' -> submit_shape s s'.
Proof.
  intros H. unfold handle_submit_graph in H.
  apply bind_ok in H. destruct H as (v1 & _ & H).
  match type of H with (match ?x with Some _ => _ | None => _ end) = _ => destruct x end; [inversion H; subst; left; reflexivity|].
  apply bind_ok in H. destruct H as ([acc s1] & Hr & H).
  assert (E1 : core_of s1 = core_of s).
  { destruct jobsel as [j0|].
    - destruct (find_job (hq_jobs s) j0) as [j|]; [|inversion Hr; subst; reflexivity].
      destruct (negb (j_open j)); inversion Hr; subst; reflexivity.
    - inversion Hr; subst; reflexivity. }
  destruct acc as [[jid is_new]|]; [|inversion H; subst; left; exact E1].
  cbv zeta in H.
  match type of H with context [fold_left ?f rqs (?sx, [])] => set (s3 := sx) in *; destruct (fold_left f rqs (s3, [])) as [s4 rqis] eqn:Erq end.
  pose proof (fold_rqs_agree _ _ _ _ _ Erq) as F.
  replace (core_of s3) with (core_of s) in F by (rewrite <- E1; subst s3; destruct is_new; reflexivity).
  apply bind_ok in H. destruct H as (j & Hj & H). apply bind_ok in H. destruct H as (j' & Ha & H).
  apply bind_ok in H. destruct H as (tasks & Hg & H).
  eapply (submit_tail_shape s s4 jid (map gt_id ts) tasks); [exact F|].
  rewrite Hj. cbn [bind]. rewrite Ha. cbn [bind]. exact H.
Qed.

Lemma step_cases s o s' outs : step s o = Ok (s', outs) ->
  s_core s' = s_core s \/
  match o with
  | OpConnect rs g => on_new_worker (s, []) rs g = Ok (s', outs)
  | OpLost w reason a p t => on_remove_worker (s, []) w reason a p t = Ok (s', outs)
  | OpSubmit job ids entries rq prio cl tlim mf => handle_submit_array (s, []) job ids entries rq prio cl tlim mf = Ok (s', outs)
  | OpSubmitG job rqs ts mf => handle_submit_graph (s, []) job rqs ts mf = Ok (s', outs)
  | OpCancel j => handle_cancel (s, []) j = Ok (s', outs)
  | OpDUp w => exists p m rest, find_proc (s_procs s) w = Some p /\ p_up p = m :: rest /\
      let s1 : st := (with_procs s (set_proc (s_procs s) (wp_up p rest)), [OUp w m]) in
      match m with UUpdates us => on_task_update s1 w us | URetractResponse ids => on_retract_response s1 w ids end = Ok (s', outs)
  | OpSched sol => run_scheduling (s, []) sol = Ok (s', outs)
  | _ => False
  end.
Proof.
  intros H. destruct o; cbn [step] in H.
  - right. exact H.
  - destruct (find_proc _ w); [right; exact H | discriminate].
  - destruct (bad_submit_lengths _ _); [inversion H; subst; left; reflexivity | right; exact H].
  - destruct (bad_graph_rq _ _); [inversion H; subst; left; reflexivity|].
    destruct (dead_dep _ _ _); [inversion H; subst; left; reflexivity | right; exact H].
  - left. unfold handle_open in H. inversion H; subst. reflexivity.
  - left. unfold handle_close in H. cbn in H. destruct (find_job _ j) as [jb|]; [|inversion H; subst; reflexivity].
    destruct (j_open jb); [|inversion H; subst; reflexivity].
    apply bind_ok in H. destruct H as (s1 & H1 & H). inversion H; subst. exact (proj1 (check_termination_jt _ _ _ H1)).
  - right. exact H.
  - left. unfold handle_forget in H. cbn in H. destruct (find_job _ j) as [jb|]; [|inversion H; subst; reflexivity].
    apply bind_ok in H. destruct H as (na & _ & H). destruct (negb (j_open jb) && na); inversion H; subst; reflexivity.
  - left. destruct (find_proc _ w) as [p|]; [|discriminate]. destruct (p_down p); [discriminate|].
    inv_binds H. inversion H; subst. reflexivity.
  - right. destruct (find_proc _ w) as [p|]; [|discriminate]. destruct (p_up p) as [|m rest] eqn:Eu; [discriminate|].
    exists p, m, rest. split; [reflexivity|]. split; [exact Eu|]. destruct m; exact H.
  - destruct (c_flag (s_core s)); [right; exact H | discriminate].
  - left. destruct (find_proc _ w) as [p|]; [|discriminate]. inv_binds H. inversion H; subst. reflexivity.
  - left. destruct (find_proc _ w) as [p|]; [|discriminate]. inversion H; subst. reflexivity.
  - left. inversion H; subst. reflexivity.
  - left. inv_binds H. inversion H; subst. reflexivity.
Qed.
