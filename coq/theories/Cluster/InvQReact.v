(** The queue invariant, part 5: the reactor, first half - retraction, removal of tasks,
    [on_cancel_tasks]. *)
From HQ Require Import Base.Prelude Cluster.Types Cluster.Core Cluster.Reactor Cluster.Worker Cluster.Server Cluster.Sys Cluster.Monitors Cluster.ProofsJob Cluster.ProofsMore Cluster.ProofsStep Cluster.BijBase Cluster.BijCore Cluster.BijHq Cluster.BijSt Cluster.BijReact Cluster.FrameGen Cluster.CrashFrame Cluster.InvQBase Cluster.InvQTake Cluster.InvQInv Cluster.InvQOps.
From HQ Require Import Cluster.ModelFacts.
From HQ Require Import Cluster.ReactSplit.
From Coq Require Import ZArith Lia Sorting.Sorted.
Local Open Scope N_scope.

Arguments N.add : simpl never.
Arguments N.sub : simpl never.

(** Unfold the core setters under [QI]. *)
Ltac qi_simpl := unfold QI in *; cbn [c_tasks c_queues c_redirects c_rqs upd_worker with_workers with_flag upd_task with_tasks with_queues with_redirects with_wcounter with_rqs core_of st_core ask_scheduling with_core s_core fst snd] in *.

Definition qsame (c c' : core) : Prop :=
  c_tasks c' = c_tasks c /\ c_queues c' = c_queues c /\ c_redirects c' = c_redirects c /\ c_rqs c' = c_rqs c.
Lemma qsame_refl c : qsame c c.
Proof. repeat split. Qed.
Lemma qsame_trans c1 c2 c3 : qsame c1 c2 -> qsame c2 c3 -> qsame c1 c3.
Proof. intros (A1 & A2 & A3 & A4) (B1 & B2 & B3 & B4). repeat split; congruence. Qed.
Lemma QI_same ex Z c c' : qsame c c' -> QI ex Z c -> QI ex Z c'.
Proof. intros (A1 & A2 & A3 & A4). unfold QI. rewrite A1, A2, A3, A4. auto. Qed.

Lemma reset_mn_workers_qsame ws : forall c id c', reset_mn_workers c ws id = Ok c' -> qsame c c'.
Proof.
  induction ws as [|w r IH]; cbn [reset_mn_workers]; intros c id c' H; [inversion H; apply qsame_refl|].
  apply bind_ok in H. destruct H as (wk & _ & H). destruct (w_assign wk); [discriminate|].
  destruct (tid_eqb t id); [|discriminate]. eapply qsame_trans; [|eapply IH; exact H]. repeat split.
Qed.
Lemma reset_mn_all_qsame ws : forall c c', reset_mn_all c ws = Ok c' -> qsame c c'.
Proof.
  induction ws as [|w r IH]; cbn [reset_mn_all]; intros c c' H; [inversion H; apply qsame_refl|].
  apply bind_ok in H. destruct H as (wk & _ & H). eapply qsame_trans; [|eapply IH; exact H]. repeat split.
Qed.
Lemma set_mn_workers_qsame l : forall c id first c', set_mn_workers c id l first = Ok c' -> qsame c c'.
Proof.
  induction l as [|w r IH]; cbn [set_mn_workers]; intros c id first c' H; [inversion H; apply qsame_refl|].
  apply bind_ok in H. destruct H as (wk & _ & H). apply bind_ok in H. destruct H as (wk' & _ & H).
  eapply qsame_trans; [|eapply IH; exact H]. repeat split.
Qed.

Lemma set_task_same ts t : StronglySorted tlt (map t_id ts) -> find_task ts (t_id t) = Some t -> set_task ts t = ts.
Proof.
  induction ts as [|h r IH]; cbn [find_task set_task map]; [discriminate|]. intros Hs Hf.
  destruct (tid_eqb (t_id t) (t_id h)) eqn:E; [inversion Hf; reflexivity|].
  destruct (find_task_some _ _ _ Hf) as [Hin _].
  assert (tlt (t_id h) (t_id t)) as Hlt by (eapply sorted_head_lt; [exact Hs | apply in_map; exact Hin]).
  destruct (tid_ltb (t_id t) (t_id h)) eqn:L; [exfalso; eapply tlt_irrefl; eapply tlt_trans; [exact Hlt | exact L]|].
  f_equal. apply IH; [inversion Hs; assumption | exact Hf].
Qed.

Lemma QV_redirect ex ex' Z ts qs rs rs' rqs id t :
  QV ex Z ts qs rs rqs -> find_task ts id = Some t ->
  RSorted rs' -> (forall x, x <> id -> find_redirect rs' x = find_redirect rs x) ->
  (forall x, x <> id -> ex' x = ex x) ->
  exp_place ex' rs' id (t_state t) = exp_place ex rs id (t_state t) ->
  (forall v, find_redirect rs' id = Some v -> ex' id = None /\ exists w, t_state t = Retracting w) ->
  QV ex' Z ts qs rs' rqs.
Proof.
  intros V Hf Hrs Hred Hex Hpl Hrd.
  pose proof (find_task_id _ _ _ Hf) as Hid.
  rewrite <- (set_task_same ts t (qv_ts _ _ _ _ _ _ V)) by (rewrite Hid; exact Hf).
  eapply QV_task; try eassumption; try reflexivity.
  intros Hfin. eapply qv_fin; eassumption.
Qed.

(** A Retracting task loses its redirect.  The redirect was what kept it out of the ready queue, so
    from now on it is listed as an exception. *)
Lemma QV_drop_redirect ex Z ts qs rs rqs id t v :
  QV ex Z ts qs rs rqs -> find_task ts id = Some t -> find_redirect rs id = Some v ->
  QV (exU ex id Nowhere) Z ts qs (del_redirect rs id) rqs /\ find_redirect (del_redirect rs id) id = None.
Proof.
  intros V Hf Er. pose proof (fun x => find_del_redirect rs id x (qv_rs _ _ _ _ _ _ V)) as Fd.
  destruct (qv_red _ _ _ _ _ _ V _ _ Er) as (En & t0 & w & Hf0 & Hst). rewrite Hf in Hf0. inversion Hf0; subst t0.
  assert (Hnr : find_redirect (del_redirect rs id) id = None) by (rewrite Fd, tid_eqb_refl; reflexivity).
  split; [|exact Hnr].
  eapply QV_redirect; [exact V | exact Hf | apply del_redirect_sorted; exact (qv_rs _ _ _ _ _ _ V) | | | |].
  - intros x Hne. rewrite Fd. apply tid_eqb_neq in Hne. rewrite Hne. reflexivity.
  - intros x Hne. apply exU_other. exact Hne.
  - unfold exp_place. rewrite exU_same, En, Hst. cbn. rewrite Er. reflexivity.
  - intros v0 Hv. congruence.
Qed.

Lemma QV_redirected ex Z ts qs rs rqs id t t' v :
  QV ex Z ts qs rs rqs -> find_task ts id = Some t -> find_redirect rs id = Some v ->
  t_id t' = id -> t_rq t' = t_rq t -> t_prio t' = t_prio t ->
  (forall rs', nat_place rs' id (t_state t') = Nowhere) -> t_state t' <> Finished ->
  QV ex Z (set_task ts t') qs (del_redirect rs id) rqs.
Proof.
  intros V Hf Er Hid Hrq Hpr Hn Hfin. destruct (QV_drop_redirect _ _ _ _ _ _ _ _ _ V Hf Er) as [V1 Hnr].
  destruct (qv_red _ _ _ _ _ _ V _ _ Er) as (En & _).
  eapply QV_settle; [exact V1 | exact Hf | apply exU_same | exact Hid | exact Hrq | exact Hpr | | | intros Hc; contradiction].
  - intros x Hne. symmetry. apply exU_other. exact Hne.
  - unfold exp_place. rewrite En. apply Hn.
Qed.

Lemma retract_states_QI Z ids : forall c acc c' acc',
  QI (exL Ready ids none) Z c -> retract_states c ids acc = Ok (c', acc') -> QI none Z c'.
Proof.
  induction ids as [|id r IH]; cbn [retract_states]; intros c acc c' acc' V H; [inversion H; subst; exact V|].
  apply bind_ok in H. destruct H as (t & Ht & H). apply get_task_find in Ht.
  destruct (t_state t) as [| |w| | | |] eqn:Est; try discriminate.
  apply bind_ok in H. destruct H as (wk & _ & H). apply bind_ok in H. destruct H as (wk' & _ & H).
  eapply IH; [|exact H]. qi_simpl.
  assert (Eid : exL Ready (id :: r) none id = Some Ready) by (apply exL_in; left; reflexivity).
  eapply QV_settle; [exact V | exact Ht | exact Eid | exact (find_task_id _ _ _ Ht) | reflexivity | reflexivity | | | cbn; discriminate].
  - intros x Hne. rewrite (exL_cons Ready id r). apply tid_eqb_neq in Hne. rewrite Hne. reflexivity.
  - unfold exp_place, exL, none. destruct (tid_mem id r); [reflexivity|]. cbn. rewrite (ex_no_redirect _ _ _ _ _ _ _ _ V Eid). reflexivity.
Qed.

Lemma process_retracted_QI Z s r s' :
  QI (exL Ready r none) Z (core_of s) -> process_retracted s r = Ok s' -> QI none Z (core_of s').
Proof.
  intros V H. unfold process_retracted in H. destruct r as [|r0 rr] eqn:Er; [inversion H; subst; exact V|]. rewrite <- Er in *.
  apply bind_ok in H. destruct H as ([c' groups] & H1 & H). rewrite (send_all_core _ _ _ H). cbn.
  eapply retract_states_QI; eassumption.
Qed.

Lemma trr_QI ex Z c id t w c' :
  QI ex Z c -> find_task (c_tasks c) id = Some t -> t_state t = Retracting w ->
  try_remove_redirection c t = Ok c' ->
  QI (exU ex id Nowhere) Z c' /\ c_tasks c' = c_tasks c /\ c_rqs c' = c_rqs c /\ find_redirect (c_redirects c') id = None.
Proof.
  intros V Hf Hst H. pose proof (find_task_id _ _ _ Hf) as Hid. unfold try_remove_redirection in H. rewrite Hid in H.
  destruct (find_redirect (c_redirects c) id) as [[w1 rv]|] eqn:Er.
  - inv_binds H. inversion H; subst c'; clear H. qi_simpl.
    destruct (QV_drop_redirect _ _ _ _ _ _ _ _ _ V Hf Er) as [V1 Hnr]. auto.
  - apply bind_ok in H. destruct H as (q & Hq & H). apply bind_ok in H. destruct H as (q' & Hq' & H). inversion H; subst c'; clear H. qi_simpl.
    apply nth_queue_ok in Hq.
    split; [|split; [reflexivity | split; [reflexivity | exact Er]]].
    eapply QV_q_remove; eassumption.
Qed.

(** A task that sits nowhere may as well be listed as an exception. *)
Lemma QI_mark ex Z c id t :
  QI ex Z c -> find_task (c_tasks c) id = Some t ->
  exp_place ex (c_redirects c) id (t_state t) = Nowhere -> (forall w, t_state t <> Retracting w) ->
  QI (exU ex id Nowhere) Z c.
Proof.
  intros V Hf Hn Hnr. unfold QI in *. eapply QV_ex_change; [exact V | |].
  - intros x t0 Hf0. unfold exp_place at 1. unfold exU. destruct (tid_eqb x id) eqn:E; [|reflexivity].
    apply tid_eqb_eq in E. subst x. rewrite Hf in Hf0. inversion Hf0; subst t0. symmetry. exact Hn.
  - intros x v Hv. destruct (qv_red _ _ _ _ _ _ V _ _ Hv) as (En & t0 & w & Hf0 & Hw). unfold exU.
    destruct (tid_eqb x id) eqn:E; [|exact En]. apply tid_eqb_eq in E. subst x. rewrite Hf in Hf0. inversion Hf0; subst t0. exfalso. exact (Hnr _ Hw).
Qed.

(** What [task_finished], [task_failed] and [cancel_release] establish before they remove a task
    that is not waiting (it is also the conclusion of [trr_QI]): the tasks are the same and [id] sits
    nowhere and has no redirect. *)
Definition q_released (ex : exn) (Z : list tid) (c : core) (id : tid) (c' : core) : Prop :=
  QI (exU ex id Nowhere) Z c' /\ c_tasks c' = c_tasks c /\ c_rqs c' = c_rqs c /\ find_redirect (c_redirects c') id = None.

(** Assigned, Running, RunningMN: only the worker sets change. *)
Lemma released_placed ex Z c c' id t :
  QI ex Z c -> find_task (c_tasks c) id = Some t -> qsame c c' ->
  exp_place ex (c_redirects c) id (t_state t) = Nowhere -> (forall w, t_state t <> Retracting w) ->
  q_released ex Z c id c'.
Proof.
  intros V Hf Hs Hn Hnr. pose proof (QV_no_redirect _ _ _ _ _ _ _ _ V Hf Hnr) as Hr.
  split; [apply (QI_same _ _ _ _ Hs); eapply QI_mark; eassumption|].
  destruct Hs as (A & _ & C & D). rewrite C. auto.
Qed.

(** Prefilled: the id leaves the prefill set. *)
Lemma released_prefilled ex Z c c' id t w q q' :
  QI ex Z c -> find_task (c_tasks c) id = Some t -> t_state t = Prefilled w ->
  nth_queue (c_queues c) (N.to_nat (t_rq t)) = Ok q -> q_remove_prefilled q id = Ok q' ->
  qsame (with_queues c (set_queue (c_queues c) (N.to_nat (t_rq t)) q')) c' ->
  q_released ex Z c id c'.
Proof.
  intros V Hf Hst Hq Hq' Hs. apply nth_queue_ok in Hq.
  assert (Hr : find_redirect (c_redirects c) id = None) by (eapply QV_no_redirect; [exact V | exact Hf | intros w0; congruence]).
  split; [apply (QI_same _ _ _ _ Hs); eapply QV_q_remove_prefilled; eassumption|].
  destruct Hs as (A & _ & C & D). rewrite C. auto.
Qed.

(** The release step (ReactSplit.v) establishes it, unless the task is waiting and nothing happens. *)
Lemma released_QI ex Z c id rq t c1 :
  QI ex Z c -> find_task (c_tasks c) id = Some t -> t_state t <> Finished -> released c id rq t c1 ->
  (nat_place (c_redirects c) id (t_state t) = Nowhere -> exp_place ex (c_redirects c) id (t_state t) = Nowhere) ->
  (is_waiting t = true /\ c1 = c) \/ q_released ex Z c id c1.
Proof.
  intros V Ef Hnf Hrel Hpl.
  destruct Hrel as [Hs | w wk wk' Hs Hw Hrm | w q q' wk wk' Hs Hq Hq' Hw Hrm | w c2 Hs H1 | ws c2 Hs H1 | ws c2 Hs H1].
  - left. split; [|reflexivity]. unfold is_waiting. destruct (t_state t); try contradiction; reflexivity.
  - right. destruct (t_state t) eqn:Est; try contradiction;
      (eapply released_placed; [exact V | exact Ef | repeat split | rewrite Est; apply Hpl; reflexivity | intros ?; congruence]).
  - right. eapply released_prefilled; [exact V | exact Ef | exact Hs | exact Hq | exact Hq' | repeat split].
  - right. exact (trr_QI _ _ _ _ _ _ _ V Ef Hs H1).
  - right. eapply released_placed; [exact V | exact Ef | exact (reset_mn_all_qsame _ _ _ H1) | apply Hpl; rewrite Hs; reflexivity | intros w1; congruence].
  - right. eapply released_placed; [exact V | exact Ef | exact (reset_mn_workers_qsame _ _ _ _ H1) | apply Hpl; rewrite Hs; reflexivity | intros w1; congruence].
Qed.

(** * Removing tasks *)
Definition lax (ex : exn) : Prop := forall x, ex x = None \/ ex x = Some Nowhere.
Lemma lax_none : lax none.
Proof. intros x. left. reflexivity. Qed.
Lemma lax_exL l base : lax base -> lax (exL Nowhere l base).
Proof. intros H x. unfold exL. destruct (tid_mem x l); [right; reflexivity | apply H]. Qed.
Lemma lax_exU base id : lax base -> lax (exU base id Nowhere).
Proof. intros H x. unfold exU. destruct (tid_eqb x id); [right; reflexivity | apply H]. Qed.

(** [tsub ts ts']: every task of [ts'] is a task of [ts] with the same state. *)
Definition tsub (ts ts' : list task) : Prop :=
  forall x t', find_task ts' x = Some t' -> exists t, find_task ts x = Some t /\ t_state t = t_state t'.
Lemma tsub_refl ts : tsub ts ts.
Proof. intros x t H. eauto. Qed.
Lemma tsub_trans a b c : tsub a b -> tsub b c -> tsub a c.
Proof. intros H1 H2 x t H. destruct (H2 _ _ H) as (t1 & A & B). destruct (H1 _ _ A) as (t0 & C & D). exists t0. split; [exact C | congruence]. Qed.

Lemma remove_consumer_from_QV ex Z qs rs rqs deps : forall ts cid ts',
  QV ex Z ts qs rs rqs -> remove_consumer_from ts deps cid = Ok ts' ->
  QV ex Z ts' qs rs rqs /\ tsub ts ts' /\ (forall x, find_task ts x = None -> find_task ts' x = None).
Proof.
  induction deps as [|d r IH]; cbn [remove_consumer_from]; intros ts cid ts' V H.
  - inversion H; subst. split; [exact V | split; [apply tsub_refl | auto]].
  - destruct (find_task ts d) as [input|] eqn:Ef; [|eapply IH; eassumption].
    destruct (tid_mem cid (t_consumers input)); [|discriminate].
    set (x := with_consumers input (tid_remove cid (t_consumers input))) in *.
    pose proof (find_task_id _ _ _ Ef) as Hid.
    assert (V1 : QV ex Z (set_task ts x) qs rs rqs).
    { eapply QV_task0; [exact V | exact Ef | exact Hid | reflexivity | reflexivity | reflexivity | reflexivity | |].
      - intros v Hv. cbn. apply (qv_red _ _ _ _ _ _ V) in Hv. destruct Hv as (En & t0 & w & Hf0 & Hw). rewrite Ef in Hf0. inversion Hf0; subst. eauto.
      - cbn. intros Hfin. eapply qv_fin; eassumption. }
    destruct (IH _ _ _ V1 H) as (I1 & I2 & I3). split; [exact I1|]. split.
    + eapply tsub_trans; [|exact I2]. intros y t' Hy. rewrite find_set_task in Hy. cbn [t_id x with_consumers] in Hy. rewrite Hid in Hy.
      destruct (tid_eqb y d) eqn:E; [|eauto]. apply tid_eqb_eq in E. subst y. inversion Hy; subst t'. exists input. split; [exact Ef | reflexivity].
    + intros y Hy. apply I3. rewrite find_set_task. cbn [t_id x with_consumers]. rewrite Hid.
      destruct (tid_eqb y d) eqn:E; [apply tid_eqb_eq in E; subst y; congruence | exact Hy].
Qed.

Lemma remove_task_QI ex Z Z' c id c' stt :
  lax ex -> QI ex Z c -> remove_task c id = Ok (c', stt) ->
  (forall t, find_task (c_tasks c) id = Some t -> is_waiting t = true \/
     (exp_place ex (c_redirects c) id (t_state t) = Nowhere /\ find_redirect (c_redirects c) id = None)) ->
  (forall x, In x Z -> x <> id -> In x Z') ->
  QI ex Z' c' /\ tsub (c_tasks c) (c_tasks c') /\ find_task (c_tasks c') id = None /\
  (forall x, find_task (c_tasks c) x = None -> find_task (c_tasks c') x = None) /\
  c_rqs c' = c_rqs c /\ (exists t, find_task (c_tasks c) id = Some t /\ stt = t_state t).
Proof.
  intros Hlax V H Hpre HZ. unfold remove_task in H.
  destruct (find_task (c_tasks c) id) as [t|] eqn:Ef; [|discriminate].
  specialize (Hpre _ eq_refl).
  pose proof (find_del_task (c_tasks c) id) as Fd.
  assert (Hsub : tsub (c_tasks c) (del_task (c_tasks c) id)).
  { intros x t' Hx. rewrite Fd in Hx by exact (qv_ts _ _ _ _ _ _ V). destruct (tid_eqb x id); [discriminate | eauto]. }
  assert (Hgone : find_task (del_task (c_tasks c) id) id = None).
  { rewrite Fd by exact (qv_ts _ _ _ _ _ _ V). rewrite (proj2 (tid_eqb_eq id id) eq_refl). reflexivity. }
  assert (Hnone : forall x, find_task (c_tasks c) x = None -> find_task (del_task (c_tasks c) id) x = None).
  { intros x Hx. rewrite Fd by exact (qv_ts _ _ _ _ _ _ V). destruct (tid_eqb x id); [reflexivity | exact Hx]. }
  (* plain deletion of a task that is nowhere *)
  assert (Hdel : exp_place ex (c_redirects c) id (t_state t) = Nowhere -> find_redirect (c_redirects c) id = None ->
                 QV ex Z' (del_task (c_tasks c) id) (c_queues c) (c_redirects c) (c_rqs c)).
  { intros Hpl Hr. eapply QV_del; eassumption. }
  assert (Hnw : is_waiting t = false -> exp_place ex (c_redirects c) id (t_state t) = Nowhere /\ find_redirect (c_redirects c) id = None).
  { intros Hw. destruct Hpre as [Hp|Hp]; [congruence | exact Hp]. }
  destruct (t_state t) as [n| | | | | |] eqn:Est;
    try (inversion H; subst; destruct Hnw as [A B]; [unfold is_waiting; rewrite Est; reflexivity|];
         split; [qi_simpl; apply Hdel; assumption | split; [exact Hsub | split; [exact Hgone | split; [exact Hnone | split; [reflexivity | eauto]]]]]).
  assert (Hnr : find_redirect (c_redirects c) id = None) by (eapply QV_no_redirect; [exact V | exact Ef | intros w0; congruence]).
  apply bind_ok in H. destruct H as (c2 & H2 & H).
  assert (V2 : QI ex Z' c2 /\ c_tasks c2 = del_task (c_tasks c) id /\ c_rqs c2 = c_rqs c).
  { destruct (N.eqb n 0) eqn:En.
    - apply N.eqb_eq in En. subst n.
      apply bind_ok in H2. destruct H2 as (q & Hq & H2). apply bind_ok in H2. destruct H2 as (q' & Hq' & H2). inversion H2; subst c2; clear H2.
      cbn [c_queues with_tasks] in Hq. apply nth_queue_ok in Hq. qi_simpl. split; [|split; reflexivity].
      pose proof (QV_q_remove _ _ _ _ _ _ _ _ _ _ V Ef Hq Hq' Hnr) as V1.
      eapply QV_ext; [eapply QV_del; [exact V1 | exact Ef | unfold exp_place; rewrite exU_same; reflexivity | exact Hnr | exact HZ]|].
      intros x t0 Hx. rewrite Fd in Hx by exact (qv_ts _ _ _ _ _ _ V). destruct (tid_eqb x id) eqn:E; [discriminate|].
      apply tid_eqb_neq in E. symmetry. apply exU_other. exact E.
    - inversion H2; subst c2. qi_simpl. split; [|split; reflexivity]. apply Hdel; [|exact Hnr].
      unfold exp_place. destruct (Hlax id) as [E|E]; rewrite E; [|reflexivity]. cbn. rewrite En. reflexivity. }
  destruct V2 as (V2 & T2 & R2).
  destruct (N.ltb 0 n).
  - apply bind_ok in H. destruct H as (ts' & Hr & H). inversion H; subst; clear H.
    destruct (remove_consumer_from_QV _ _ _ _ _ _ _ _ _ V2 Hr) as (V3 & S3 & N3). qi_simpl.
    split; [exact V3|]. rewrite T2 in S3, N3. split; [eapply tsub_trans; eassumption|]. split; [apply N3; exact Hgone|].
    split; [intros x Hx; apply N3; apply Hnone; exact Hx | split; [exact R2 | eauto]].
  - inversion H; subst; clear H. rewrite T2. split; [exact V2 | split; [exact Hsub | split; [exact Hgone | split; [exact Hnone | split; [exact R2 | eauto]]]]].
Qed.

Lemma nowhere_pre ex Z c id t : QI ex Z c -> find_task (c_tasks c) id = Some t ->
  is_waiting t = true \/ ex id = Some Nowhere ->
  is_waiting t = true \/ (exp_place ex (c_redirects c) id (t_state t) = Nowhere /\ find_redirect (c_redirects c) id = None).
Proof.
  intros V Hf [Hw|Hp]; [left; exact Hw|]. right. split; [unfold exp_place; rewrite Hp; reflexivity|].
  destruct (find_redirect (c_redirects c) id) eqn:Er; [|reflexivity]. apply (qv_red _ _ _ _ _ _ V) in Er. destruct Er as [Er _]. congruence.
Qed.

Lemma remove_task_state c id c' stt t : remove_task c id = Ok (c', stt) -> find_task (c_tasks c) id = Some t -> stt = t_state t.
Proof.
  unfold remove_task. intros H Hf. rewrite Hf in H. destruct (t_state t) eqn:Est; try (inversion H; reflexivity).
  apply bind_ok in H. destruct H as (c2 & _ & H). destruct (N.ltb 0 unfinished_deps); [apply bind_ok in H; destruct H as (ts & _ & H)|]; inversion H; reflexivity.
Qed.

Lemma remove_tasks_batched_QI ex Z l : forall c c',
  lax ex -> QI ex Z c ->
  (forall x t, In x l -> find_task (c_tasks c) x = Some t -> is_waiting t = true \/ ex x = Some Nowhere) ->
  remove_tasks_batched c l = Ok c' ->
  QI ex Z c' /\ tsub (c_tasks c) (c_tasks c') /\ (forall x, In x l -> find_task (c_tasks c') x = None) /\
  (forall x, find_task (c_tasks c) x = None -> find_task (c_tasks c') x = None) /\ c_rqs c' = c_rqs c.
Proof.
  induction l as [|id r IH]; cbn [remove_tasks_batched]; intros c c' Hlax V Hpre H.
  - inversion H; subst. split; [exact V | split; [apply tsub_refl | split; [intros x [] | auto]]].
  - apply bind_ok in H. destruct H as ([c1 stt] & H1 & H).
    destruct (remove_task_QI ex Z Z _ _ _ _ Hlax V H1) as (V1 & S1 & G1 & N1 & R1 & _); [intros t Ht; eapply nowhere_pre; [exact V | exact Ht | eapply Hpre; [left; reflexivity | exact Ht]] | auto|].
    assert (Hpre1 : forall x t, In x r -> find_task (c_tasks c1) x = Some t -> is_waiting t = true \/ ex x = Some Nowhere).
    { intros x t Hx Ht. destruct (S1 _ _ Ht) as (t0 & Ht0 & Hst). destruct (Hpre x t0 (or_intror Hx) Ht0) as [A|A]; [left; unfold is_waiting in *; rewrite <- Hst; exact A | right; exact A]. }
    destruct (IH _ _ Hlax V1 Hpre1 H) as (V2 & S2 & G2 & N2 & R2).
    split; [exact V2 | split; [eapply tsub_trans; eassumption | split; [|split; [auto | congruence]]]].
    intros x [<-|Hx]; [apply N2; exact G1 | apply G2; exact Hx].
Qed.

Lemma remove_waiting_consumers_QI ex Z l : forall c c',
  lax ex -> QI ex Z c -> remove_waiting_consumers c l = Ok c' ->
  QI ex Z c' /\ tsub (c_tasks c) (c_tasks c') /\ (forall x, find_task (c_tasks c) x = None -> find_task (c_tasks c') x = None) /\ c_rqs c' = c_rqs c /\
  (forall x, In x l -> find_task (c_tasks c') x = None).
Proof.
  induction l as [|id r IH]; cbn [remove_waiting_consumers]; intros c c' Hlax V H.
  - inversion H; subst. split; [exact V | split; [apply tsub_refl | split; [auto | split; [reflexivity | intros x []]]]].
  - apply bind_ok in H. destruct H as ([c1 stt] & H1 & H).
    assert (Hw : forall t, find_task (c_tasks c) id = Some t -> is_waiting t = true \/
              (exp_place ex (c_redirects c) id (t_state t) = Nowhere /\ find_redirect (c_redirects c) id = None)).
    { intros t Ht. left. unfold remove_task in H1. rewrite Ht in H1. unfold is_waiting.
      destruct (t_state t); try (inversion H1; subst; discriminate). reflexivity. }
    destruct (remove_task_QI ex Z Z _ _ _ _ Hlax V H1 Hw) as (V1 & S1 & G1 & N1 & R1 & _); [auto|].
    destruct stt; try discriminate.
    destruct (IH _ _ Hlax V1 H) as (V2 & S2 & N2 & R2 & G2).
    split; [exact V2 | split; [eapply tsub_trans; eassumption | split; [auto | split; [congruence|]]]].
    intros x [<-|Hx]; [apply N2; exact G1 | apply G2; exact Hx].
Qed.

(** * [on_cancel_tasks] *)
Lemma cancel_release_QI Z ids : forall s tu ru s' tu' ru' L,
  QI (exL Nowhere L none) Z (core_of s) ->
  cancel_release s ids tu ru = Ok (s', tu', ru') ->
  exists L', QI (exL Nowhere L' none) Z (core_of s') /\ c_tasks (core_of s') = c_tasks (core_of s) /\
    (forall x, In x L -> In x L') /\
    (forall x, In x L' -> In x L \/ (In x ids /\ find_task (c_tasks (core_of s)) x <> None)) /\
    (forall x t, In x ids -> find_task (c_tasks (core_of s)) x = Some t -> is_waiting t = true \/ In x L').
Proof.
  induction ids as [|id r IH]; intros s tu ru s' tu' ru' L V H.
  - cbn [cancel_release] in H. inversion H; subst. exists L. split; [exact V | split; [reflexivity | split; [auto | split; [auto | intros x t []]]]].
  - destruct (cancel_release_step _ _ _ _ _ _ H) as [[Ef H1] | (t & rq & c1 & sx & tux & rux & Ef & _ & Hnf & Hrl & Es1 & Hrest)].
    + destruct (IH _ _ _ _ _ _ _ V H1) as (L' & A1 & A2 & A3 & A4 & A5).
      exists L'. split; [exact A1 | split; [exact A2 | split; [exact A3 | split]]].
      * intros x Hx. destruct (A4 _ Hx) as [Hx1|[Hx1 Hx2]]; [left; exact Hx1 | right; split; [right; exact Hx1 | exact Hx2]].
      * intros x t0 [<-|Hx] Hf0; [congruence | eapply A5; eassumption].
    + (* the rest continues from a state with the same tasks in which [id] is waiting or nowhere *)
      assert (Hgen : forall s1 tu1 ru1 L1, QI (exL Nowhere L1 none) Z (core_of s1) -> c_tasks (core_of s1) = c_tasks (core_of s) ->
                (forall x, In x L -> In x L1) -> (forall x, In x L1 -> In x L \/ x = id) -> (is_waiting t = true \/ In id L1) ->
                cancel_release s1 r tu1 ru1 = Ok (s', tu', ru') ->
                exists L', QI (exL Nowhere L' none) Z (core_of s') /\ c_tasks (core_of s') = c_tasks (core_of s) /\
                  (forall x, In x L -> In x L') /\
                  (forall x, In x L' -> In x L \/ ((id = x \/ In x r) /\ find_task (c_tasks (core_of s)) x <> None)) /\
                  (forall x t0, id = x \/ In x r -> find_task (c_tasks (core_of s)) x = Some t0 -> is_waiting t0 = true \/ In x L')).
      { intros s1 tu1 ru1 L1 V1 T1 HL HL1 Hid H1. destruct (IH _ _ _ _ _ _ _ V1 H1) as (L' & A1 & A2 & A3 & A4 & A5).
        exists L'. split; [exact A1 | split; [congruence | split; [auto | split]]].
        - intros x Hx. destruct (A4 _ Hx) as [Hx1|[Hx1 Hx2]].
          + destruct (HL1 _ Hx1) as [Hx2| ->]; [left; exact Hx2 | right; split; [left; reflexivity | congruence]].
          + right. split; [right; exact Hx1 | rewrite <- T1; exact Hx2].
        - intros x t0 [<-|Hx] Hf0.
          + rewrite Ef in Hf0. inversion Hf0; subst t0. destruct Hid as [Hw|Hl]; [left; exact Hw | right; apply A3; exact Hl].
          + apply A5; [exact Hx | rewrite T1; exact Hf0]. }
      assert (Hpl : nat_place (c_redirects (core_of s)) id (t_state t) = Nowhere ->
                exp_place (exL Nowhere L none) (c_redirects (core_of s)) id (t_state t) = Nowhere).
      { intros Hn. unfold exp_place, exL, none. destruct (tid_mem id L); [reflexivity | exact Hn]. }
      destruct (released_QI _ _ _ _ _ _ _ V Ef Hnf Hrl Hpl) as [[Hw ->] | (V1 & T1 & _)].
      * eapply (Hgen sx tux rux L); [destruct Es1 as [-> | ->]; exact V | destruct Es1 as [-> | ->]; reflexivity | auto | auto | left; exact Hw | exact Hrest].
      * (* [id] released: it goes on the list *)
        eapply (Hgen sx tux rux (id :: L)); [| destruct Es1 as [-> | ->]; exact T1 | intros x Hy; right; exact Hy | intros x [<-|Hy]; auto | right; left; reflexivity | exact Hrest].
        assert (V2 : QI (exL Nowhere (id :: L) none) Z c1).
        { unfold QI in *. eapply QV_ext; [exact V1|]. intros x t0 _. rewrite exL_cons. reflexivity. }
        destruct Es1 as [-> | ->]; exact V2.
Qed.

Lemma cancel_release_rqs ids : forall s tu ru s' tu' ru',
  cancel_release s ids tu ru = Ok (s', tu', ru') -> c_rqs (core_of s') = c_rqs (core_of s).
Proof.
  induction ids as [|id r IH]; intros s tu ru s' tu' ru' H1; cbn [cancel_release] in H1; [inversion H1; reflexivity|].
  destruct (find_task (c_tasks (core_of s)) id) as [t|]; [|eapply IH; exact H1].
  apply bind_ok in H1. destruct H1 as (csm & _ & H1). apply bind_ok in H1. destruct H1 as (rq & _ & H1).
  destruct (t_state t); try discriminate.
  - rewrite (IH _ _ _ _ _ _ H1). reflexivity.
  - inv_binds H1. rewrite (IH _ _ _ _ _ _ H1). reflexivity.
  - inv_binds H1. rewrite (IH _ _ _ _ _ _ H1). reflexivity.
  - apply bind_ok in H1. destruct H1 as (c1 & Hc1 & H1). rewrite (IH _ _ _ _ _ _ H1). cbn.
    unfold try_remove_redirection in Hc1. destruct (find_redirect _ _) as [[w0 rv0]|]; inv_binds Hc1; inversion Hc1; reflexivity.
  - inv_binds H1. rewrite (IH _ _ _ _ _ _ H1). reflexivity.
  - apply bind_ok in H1. destruct H1 as (c1 & Hc1 & H1). destruct ws; [discriminate|]. rewrite (IH _ _ _ _ _ _ H1). cbn.
    apply (reset_mn_all_qsame _ _ _ Hc1).
Qed.

(** [on_cancel_tasks] under the hypothesis (provided by the bijection with the job layer) that every
    task that is going to be removed is either one of the cancelled ones or a waiting task. *)
Lemma on_cancel_tasks_QI Z s ids s' :
  QI none Z (core_of s) -> KD (K s) ->
  (forall x t y, find_task (c_tasks (core_of s)) x = Some t -> In y ids -> fst x = fst y -> In x ids \/ is_waiting t = true) ->
  on_cancel_tasks s ids = Ok s' ->
  QI none Z (core_of s') /\ tsub (c_tasks (core_of s)) (c_tasks (core_of s')) /\ c_rqs (core_of s') = c_rqs (core_of s).
Proof.
  intros V Hd Hcl H. unfold on_cancel_tasks in H.
  apply bind_ok in H. destruct H as ([[s1 tu] ru] & H1 & H). apply bind_ok in H. destruct H as (c' & H2 & H).
  destruct (cancel_release_spec _ _ _ _ _ _ _ Hd H1) as (E1 & _ & I3 & I4).
  destruct (cancel_release_QI Z _ _ _ _ _ _ _ [] V H1) as (L' & V1 & T1 & _ & L4 & L5).
  assert (Hlax : lax (exL Nowhere L' none)) by (apply lax_exL, lax_none).
  assert (Hpre : forall x t, In x tu -> find_task (c_tasks (core_of s1)) x = Some t -> is_waiting t = true \/ exL Nowhere L' none x = Some Nowhere).
  { intros x t Hx Ht. rewrite T1 in Ht. destruct (I4 _ Hx) as [[]|(y & Hy & Hpy & Hfy)].
    destruct (Hcl _ _ _ Ht Hy Hfy) as [Hin|Hw]; [|left; exact Hw].
    destruct (L5 _ _ Hin Ht) as [Hw|Hl]; [left; exact Hw | right; apply exL_in; exact Hl]. }
  destruct (remove_tasks_batched_QI _ Z tu _ _ Hlax V1 Hpre H2) as (V2 & S2 & G2 & N2 & R2).
  rewrite (send_all_core _ _ _ H). cbn [core_of st_core with_core s_core fst].
  split; [|split; [rewrite <- T1; exact S2|]].
  - unfold QI in *. eapply QV_ext; [exact V2|]. intros x t Hf. symmetry. apply (exL_notin Nowhere L' none x). intros Hx.
    destruct (L4 _ Hx) as [[]|[Hin Hne]].
    assert (Hp : present (K s) x).
    { apply find_task_present. destruct (find_task (c_tasks (core_of s)) x) eqn:E; [eauto | congruence]. }
    rewrite (G2 x (I3 _ Hin Hp)) in Hf. discriminate.
  - rewrite R2. eapply cancel_release_rqs; exact H1.
Qed.
