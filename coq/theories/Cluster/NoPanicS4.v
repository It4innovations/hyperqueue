(** C09 for the scheduling step: the multi-node mapping ([set_mn_workers], [map_mn_sets],
    [map_mn]) never panics when every worker set consists of distinct free workers, the sets are
    disjoint, the class's queue can deliver one ready task per set and holds no task under
    retraction. *)
From HQ Require Import Base.Prelude Cluster.Types Cluster.Core Cluster.Server Cluster.BijBase Cluster.InvWBase Cluster.InvWCore Cluster.InvWServer Cluster.InvQBase Cluster.InvQInv Cluster.InvQTake Cluster.InvQSched Cluster.NoPanicS1 Cluster.NoPanicS3.
From HQ Require Import Cluster.ModelFacts.
From Coq Require Import ZArith Lia Sorting.Sorted.
Local Open Scope N_scope.

Arguments N.add : simpl never.
Arguments N.sub : simpl never.

Definition NR (c : core) (i : nat) : Prop :=
  forall id t w, find_task (c_tasks c) id = Some t -> N.to_nat (t_rq t) = i -> t_state t <> Retracting w.
(** Worker [w] exists and is free ([Worker::is_free]). *)
Definition freew (c : core) (w : wid) : Prop :=
  exists wk, find_worker (c_workers c) w = Some wk /\ worker_is_free wk = true.
Definition MNL (c : core) (mn : list tid) : Prop :=
  forall id, In id mn -> exists t w0 ws, find_task (c_tasks c) id = Some t /\ t_state t = RunningMN (w0 :: ws) /\
                                         find_worker (c_workers c) w0 <> None.

Lemma NoDup_app_disj {A} (a b : list A) x : NoDup (a ++ b) -> In x a -> In x b -> False.
Proof.
  induction a as [|h t IH]; cbn [app]; intros H Ha Hb; [destruct Ha|]. inversion H; subst.
  destruct Ha as [->|Ha]; [apply H2; apply in_or_app; right; exact Hb | exact (IH H3 Ha Hb)].
Qed.

Lemma NoDup_app_r {A} (a b : list A) : NoDup (a ++ b) -> NoDup b.
Proof. induction a as [|h t IH]; cbn [app]; intros H; [exact H|]. inversion H; subst. apply IH. assumption. Qed.

Lemma freew_SF T (W : wid -> Prop) Q c c' w : SF T W Q c c' -> ~ W w -> freew c w -> freew c' w.
Proof. intros A Hn (wk & Hw & Hf). exists wk. split; [exact (sf_free _ _ _ _ _ A w wk Hn Hw Hf) | exact Hf]. Qed.

Lemma NR_SF (T : tid -> Prop) W Q c c' j : SF T W Q c c' ->
  (forall y t, T y -> find_task (c_tasks c) y = Some t -> N.to_nat (t_rq t) <> j) -> NR c j -> NR c' j.
Proof.
  intros A HT H id t' w Hf Hr. destruct (SF_find_back _ _ _ _ _ _ _ A Hf) as (t & Ht & Et).
  assert (Hrq : N.to_nat (t_rq t) = j) by (rewrite Et in Hr; exact Hr).
  assert (Hn : ~ T id) by (intros X; exact (HT id t X Ht Hrq)).
  rewrite (sf_t _ _ _ _ _ A id Hn) in Hf. exact (H id t' w Hf Hr).
Qed.

Lemma ready_state c i q p id : QI none [] c -> nth_error (c_queues c) i = Some q -> RdyAt q p id ->
  exists t, find_task (c_tasks c) id = Some t /\ N.to_nat (t_rq t) = i /\ (t_state t = Waiting 0 \/ exists w, t_state t = Retracting w).
Proof.
  intros V Hq Hr. assert (Hm : member q id) by (exists p; left; exact Hr).
  destruct (qv_live _ _ _ _ _ _ V i q id Hq Hm) as (t & Hf & Hi). exists t. split; [exact Hf|]. split; [exact Hi|].
  rewrite <- Hi in Hq. pose proof (qv_task _ _ _ _ _ _ V _ _ _ Hf Hq) as Hp.
  unfold exp_place, none, nat_place in Hp.
  destruct (t_state t) as [n| | | | | |]; try (exfalso; destruct Hp as [A _]; exact (A _ Hr)); try (exfalso; destruct Hp as [_ B]; exact (B _ Hr)).
  - destruct (N.eqb n 0) eqn:E; [apply N.eqb_eq in E; subst; left; reflexivity | exfalso; destruct Hp as [A _]; exact (A _ Hr)].
  - right. eauto.
Qed.

Lemma set_mn_workers_ok T Q l : forall c id first,
  NoDup l -> (forall w, In w l -> freew c w) ->
  exists c', set_mn_workers c id l first = Ok c' /\ SF T (fun y => In y l) Q c c' /\ c_tasks c' = c_tasks c /\ c_queues c' = c_queues c.
Proof.
  induction l as [|w r IH]; intros c id first Hnd Hfr; cbn [set_mn_workers].
  - exists c. split; [reflexivity|]. split; [apply SF_refl | split; reflexivity].
  - inversion Hnd as [|? ? Hni Hnr]; subst. destruct (Hfr w (or_introl eq_refl)) as (wk & Hw & Hf).
    unfold get_worker. rewrite Hw. cbn [bind]. unfold set_mn_task. rewrite Hf. cbn [bind].
    destruct (find_worker_some _ _ _ Hw) as [_ Hwi].
    assert (F1 : SF T (fun y => In y (w :: r)) Q c (upd_worker c (with_assign wk (Mn id first))))
      by (eapply SF_upd_worker; [exact Hw | exact Hwi | left; left; reflexivity]).
    destruct (IH (upd_worker c (with_assign wk (Mn id first))) id false Hnr) as (c' & E & F2 & Et & Eq).
    { intros y Hy. destruct (Hfr y (or_intror Hy)) as (wy & Hwy & Hfy). exists wy. split; [|exact Hfy].
      cbn [c_workers upd_worker with_workers]. rewrite find_set_worker. cbn [w_id with_assign]. rewrite Hwi.
      destruct (N.eqb y w) eqn:Ey; [apply N.eqb_eq in Ey; subst y; contradiction | exact Hwy]. }
    exists c'. split; [exact E|]. split; [|rewrite Et, Eq; split; reflexivity].
    eapply SF_trans; [exact F1|]. eapply SF_weaken; [| | |exact F2]; auto. intros y Hy. right. exact Hy.
Qed.

Lemma map_mn_sets_ok rq sets : forall c mn,
  WI c -> QI none [] c -> MNL c mn -> (N.to_nat rq < length (c_queues c))%nat ->
  (forall q, nth_error (c_queues c) (N.to_nat rq) = Some q -> take_ones (length sets) q = true) -> NR c (N.to_nat rq) ->
  Forall (fun ws => ws <> []) sets -> NoDup (concat sets) -> (forall w, In w (concat sets) -> freew c w) ->
  exists c' mn', map_mn_sets c rq mn sets = Ok (c', mn') /\ WI c' /\ QI none [] c' /\ MNL c' mn' /\
    SF (fun y => exists t, find_task (c_tasks c) y = Some t /\ N.to_nat (t_rq t) = N.to_nat rq)
       (fun y => In y (concat sets)) (eq (N.to_nat rq)) c c'.
Proof.
  set (i := N.to_nat rq).
  induction sets as [|ws rest IH]; intros c mn HW V HL Hlq Htk HNR Hne Hnd Hfr.
  - exists c, mn. split; [reflexivity|]. split; [exact HW|]. split; [exact V|]. split; [exact HL | apply SF_refl].
  - destruct (nth_error_ex (c_queues c) i Hlq) as (q & Hq).
    pose proof (proj2 (nth_queue_ok _ _ _) Hq) as Hnq.
    pose proof (Htk q Hq) as Hto. cbn [length take_ones] in Hto.
    destruct (q_take_one q) as [[id q']|] eqn:Eo; [|discriminate].
    destruct (q_take_one_ready _ _ _ Eo) as (_ & (p & Hrd) & _).
    destruct (ready_state c i q p id V Hq Hrd) as (t & Ht & Hrq & Hst).
    assert (Est : t_state t = Waiting 0) by (destruct Hst as [E|(w & E)]; [exact E | exfalso; exact (HNR id t w Ht Hrq E)]).
    destruct (find_task_some _ _ _ Ht) as [_ Hid].
    pose proof (Forall_inv Hne) as Hws. pose proof (Forall_inv_tail Hne) as Hne'. cbn beta in Hws. cbn [concat] in Hnd, Hfr.
    pose proof (NoDup_app_l _ _ Hnd) as Hndw. pose proof (NoDup_app_r _ _ Hnd) as Hndr.
    set (c1 := with_queues c (set_queue (c_queues c) i q')).
    set (Ti := fun y => exists t, find_task (c_tasks c) y = Some t /\ N.to_nat (t_rq t) = i).
    assert (F01 : SF Ti (fun y => In y ws) (eq i) c c1) by (apply SF_set_queue; reflexivity).
    destruct (set_mn_workers_ok Ti (eq i) ws c1 id true Hndw) as (c2 & E2 & F12 & Et2 & Eq2).
    { intros w Hw. apply Hfr. apply in_or_app. left. exact Hw. }
    assert (Ht2 : find_task (c_tasks c2) id = Some t) by (rewrite Et2; exact Ht).
    set (c3 := upd_task c2 (with_state t (RunningMN ws))).
    assert (F23 : SF Ti (fun y => In y ws) (eq i) c2 c3) by (eapply SF_upd_task; [exact Ht2 | exists t; auto]).
    assert (F03 : SF Ti (fun y => In y ws) (eq i) c c3) by (eapply SF_trans; [exact F01|]; eapply SF_trans; [exact F12 | exact F23]).
    assert (Hc3 : forall y, y <> id -> find_task (c_tasks c3) y = find_task (c_tasks c) y).
    { intros y Hy. cbn [c3 c_tasks upd_task with_tasks]. rewrite find_set_task. cbn [t_id with_state]. rewrite Hid.
      destruct (tid_eqb y id) eqn:E; [apply tid_eqb_eq in E; contradiction | rewrite Et2; reflexivity]. }
    assert (Hc3i : find_task (c_tasks c3) id = Some (with_state t (RunningMN ws))).
    { cbn [c3 c_tasks upd_task with_tasks]. rewrite find_set_task. cbn [t_id with_state]. rewrite Hid, tid_eqb_refl. reflexivity. }
    (* one set, seen as a run of the function itself: the existing preservation lemmas apply *)
    assert (E1 : map_mn_sets c rq mn [ws] = Ok (c3, mn ++ [id])).
    { cbn [map_mn_sets]. fold i. rewrite Hnq. cbn [bind]. rewrite Eo.
      change (with_queues c (set_queue (c_queues c) i q')) with c1. rewrite E2. cbn [bind].
      unfold get_task. rewrite Ht2. cbn [bind]. rewrite Est. reflexivity. }
    pose proof (map_mn_sets_WI _ _ _ _ _ _ HW E1) as W3. pose proof (map_mn_sets_QI _ _ _ _ _ _ V E1) as V3.
    assert (Hq3 : nth_error (c_queues c3) i = Some q').
    { change (nth_error (c_queues c2) i = Some q'). rewrite Eq2. cbn [c1 c_queues with_queues]. eapply nth_set_queue_same. exact Hq. }
    assert (L3 : MNL c3 (mn ++ [id])).
    { intros y Hy. apply in_app_or in Hy. destruct Hy as [Hy|[<-|[]]].
      - destruct (HL y Hy) as (ty & w0 & wr & Hty & Esy & Hwy). exists ty, w0, wr.
        split; [|split; [exact Esy | apply (sf_wsome _ _ _ _ _ F03); exact Hwy]].
        rewrite Hc3; [exact Hty|]. intros ->. rewrite Ht in Hty. inversion Hty; subst. congruence.
      - destruct ws as [|w0 wr]; [congruence|]. exists (with_state t (RunningMN (w0 :: wr))), w0, wr.
        split; [exact Hc3i|]. split; [reflexivity|].
        apply (sf_wsome _ _ _ _ _ F03). destruct (Hfr w0) as (wk0 & Hwk0 & _); [left; reflexivity | congruence]. }
    destruct (IH c3 (mn ++ [id]) W3 V3 L3) as (c' & mn' & E' & W' & V' & L' & F').
    { rewrite (sf_qlen _ _ _ _ _ F03). exact Hlq. }
    { intros q0 Hq0. rewrite Hq3 in Hq0. inversion Hq0; subst. exact Hto. }
    { intros y ty w Hty Hr. destruct (tid_dec y id) as [->|Hne0].
      - rewrite Hc3i in Hty. inversion Hty; subst. discriminate.
      - rewrite (Hc3 y Hne0) in Hty. exact (HNR y ty w Hty Hr). }
    { exact Hne'. }
    { exact Hndr. }
    { intros w Hw. eapply (freew_SF _ (fun y => In y ws)); [exact F03 | | apply Hfr; apply in_or_app; right; exact Hw].
      intros X. exact (NoDup_app_disj _ _ _ Hnd X Hw). }
    exists c', mn'. split.
    { cbn [map_mn_sets]. fold i. rewrite Hnq. cbn [bind]. rewrite Eo.
      change (with_queues c (set_queue (c_queues c) i q')) with c1. rewrite E2. cbn [bind].
      unfold get_task. rewrite Ht2. cbn [bind]. rewrite Est. exact E'. }
    split; [exact W'|]. split; [exact V'|]. split; [exact L'|].
    eapply SF_trans; [eapply SF_weaken; [| | |exact F03]; auto; intros y Hy; apply in_or_app; left; exact Hy|].
    eapply SF_weaken; [| | |exact F']; auto.
    + intros y (t3 & Ht3 & Hr3). destruct (SF_find_back _ _ _ _ _ _ _ F03 Ht3) as (t0 & Ht0 & Et0). exists t0. split; [exact Ht0|]. rewrite Et0 in Hr3. exact Hr3.
    + intros y Hy. apply in_or_app. right. exact Hy.
Qed.

(** What is needed for one class [(rq, variant, worker sets)]: a valid request index, one ready task
    per set, no task of the request under retraction (multi-node tasks are never prefilled), no
    empty set. *)
Definition mn_class_ok (c : core) (x : N * N * list (list wid)) : Prop :=
  (cidx x < length (c_rqs c))%nat /\
  (forall q, nth_error (c_queues c) (cidx x) = Some q -> take_ones (length (snd x)) q = true) /\
  NR c (cidx x) /\ Forall (fun ws => ws <> []) (snd x).
Definition mn_workers (l : list (N * N * list (list wid))) : list wid := concat (concat (map snd l)).
Definition MnOK (c : core) (l : list (N * N * list (list wid))) : Prop :=
  NoDup (map cidx l) /\ Forall (mn_class_ok c) l /\ NoDup (mn_workers l) /\ (forall w, In w (mn_workers l) -> freew c w).

Lemma mn_workers_cons x r : mn_workers (x :: r) = concat (snd x) ++ mn_workers r.
Proof. unfold mn_workers. cbn [map concat]. apply concat_app. Qed.

Lemma MnOK_SF (T : tid -> Prop) (W : wid -> Prop) (Q : nat -> Prop) c c' l : SF T W Q c c' ->
  (forall i, In i (map cidx l) -> ~ Q i) ->
  (forall y t, T y -> find_task (c_tasks c) y = Some t -> ~ In (N.to_nat (t_rq t)) (map cidx l)) ->
  (forall w, In w (mn_workers l) -> ~ W w) ->
  MnOK c l -> MnOK c' l.
Proof.
  intros A HQ HT HWn (H1 & H2 & H3 & H4). split; [exact H1|]. split; [|split; [exact H3|]].
  - rewrite Forall_forall in *. intros x Hx. destruct (H2 x Hx) as (X1 & X2 & X3 & X4).
    assert (Hin : In (cidx x) (map cidx l)) by (apply in_map; exact Hx).
    split; [rewrite (sf_rqs _ _ _ _ _ A); exact X1|]. split; [|split; [|exact X4]].
    + intros q Hq. apply X2. rewrite <- (sf_q _ _ _ _ _ A _ (HQ _ Hin)). exact Hq.
    + eapply NR_SF; [exact A | | exact X3]. intros y t Hy Ht E. apply (HT y t Hy Ht). rewrite E. exact Hin.
  - intros w Hw. eapply freew_SF; [exact A | apply HWn; exact Hw | apply H4; exact Hw].
Qed.

Theorem map_mn_ok l : forall c mn,
  WI c -> QI none [] c -> MNL c mn -> MnOK c l ->
  exists c' mn', map_mn c mn l = Ok (c', mn') /\ WI c' /\ QI none [] c' /\ MNL c' mn' /\
    SF (fun _ => True) (fun _ => True) (fun _ => True) c c'.
Proof.
  induction l as [|[[rq v] sets] r IH]; intros c mn HW V HL HO; cbn [map_mn].
  - exists c, mn. split; [reflexivity|]. split; [exact HW|]. split; [exact V|]. split; [exact HL | apply SF_refl].
  - destruct HO as (H1 & H2 & H3 & H4). inversion H1 as [|? ? Hni Hnr]; subst.
    pose proof (Forall_inv H2) as (X1 & X2 & X3 & X4). pose proof (Forall_inv_tail H2) as H2r.
    unfold cidx in X1, X2, X3, Hni. cbn [fst snd] in X1, X2, X3, X4, Hni.
    rewrite mn_workers_cons in H3, H4. cbn [snd] in H3, H4.
    destruct (map_mn_sets_ok rq sets c mn HW V HL) as (c1 & mn1 & E1 & W1 & V1 & L1 & F1).
    { rewrite (qv_len _ _ _ _ _ _ V). exact X1. }
    { exact X2. }
    { exact X3. }
    { exact X4. }
    { exact (NoDup_app_l _ _ H3). }
    { intros w Hw. apply H4. apply in_or_app. left. exact Hw. }
    rewrite E1. cbn [bind].
    assert (HO1 : MnOK c1 r).
    { eapply MnOK_SF; [exact F1 | | | |].
      - intros j Hj <-. exact (Hni Hj).
      - intros y t (t0 & Ht0 & Hr0) Ht Hin. rewrite Ht0 in Ht. inversion Ht; subst t0. rewrite Hr0 in Hin. exact (Hni Hin).
      - intros w Hw X. exact (NoDup_app_disj _ _ _ H3 X Hw).
      - split; [exact Hnr|]. split; [exact H2r|]. split; [exact (NoDup_app_r _ _ H3)|].
        intros w Hw. apply H4. apply in_or_app. right. exact Hw. }
    destruct (IH c1 mn1 W1 V1 L1 HO1) as (c2 & mn2 & E2 & W2 & V2 & L2 & F2).
    exists c2, mn2. split; [exact E2|]. split; [exact W2|]. split; [exact V2|]. split; [exact L2|].
    eapply SF_trans; [|exact F2]. eapply SF_weaken; [| | |exact F1]; auto.
Qed.
