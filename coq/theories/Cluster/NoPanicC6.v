(** C09 for client requests: witnesses.  (1) A task graph whose task names a request index
    outside the request list of the message reaches sites 223 / 224 of [handle_submit_graph] (= the
    assertion / the index in the real [validate_submit] / [build_tasks_graph]: finding F27, the real
    server panicked); since the repair the request is refused before that.  The hypothesis [op_ok]
    on arrays cannot be dropped in the model: a duplicate explicit id reaches site 220 (the real
    [IntArray] is a set, no message contains one).  (2) The
    theorem is not vacuous: a reachable state with assigned and prefilled tasks satisfies all its
    hypotheses, and the cancel request is processed there. *)
From HQ Require Import Base.Prelude Cluster.Types Cluster.Server Cluster.Sys Cluster.InvProcsDef Cluster.InvBundle Cluster.NoPanicC1 Cluster.NoPanicC5.
From Coq Require Import ZArith.
Local Open Scope N_scope.

Definition rq1 : rqdef := mkRq 0 [1; 0; 0].

(** A graph task with local request index 0 and an empty request list: new job. *)
Example malformed_graph_panics_new_job :
  handle_submit_graph (init_sys 0 2, []) None [] [(0, 0, 0%Z, CUnl, [])] None = Panic 224 /\
  step (init_sys 0 2) (OpSubmitG None [] [(0, 0, 0%Z, CUnl, [])] None) = Ok (init_sys 0 2, [OResp (RSubmitErr 5 0)]).
Proof. split; vm_compute; reflexivity. Qed.

(** ... into an open job: the assertion of [validate_submit]. *)
Example malformed_graph_panics_open_job :
  exists s outs, run (init_sys 0 2) [OpOpen None] = Ok (s, outs) /\
    handle_submit_graph (s, []) (Some 1) [] [(0, 0, 0%Z, CUnl, [])] None = Panic 223 /\
    step s (OpSubmitG (Some 1) [] [(0, 0, 0%Z, CUnl, [])] None) = Ok (s, [OResp (RSubmitErr 5 0)]).
Proof. eexists. eexists. split; [|split]; vm_compute; reflexivity. Qed.

(** A duplicate explicit id. *)
Example duplicate_id_panics :
  step (init_sys 0 2) (OpSubmit None [3; 3] (Some 2) rq1 0%Z CUnl false None) = Panic 220.
Proof. vm_compute. reflexivity. Qed.

(** A worker, three tasks, a scheduling round that assigns two of them and prefills the third. *)
Definition pre_ops : list op :=
  [OpConnect [4; 0; 0] 0;
   OpSubmit None [] (Some 3) rq1 0%Z CUnl false None;
   OpSched (mkSol [(0, 0, [(1, 2)])] [] [1] [])].

Lemma cancel_applies s : INV s -> PW s -> MNE (s_core s) -> RWA (s_core s) ->
  INV s /\ PW s /\ MNE (s_core s) /\ RWA (s_core s) /\ (exists r, step s (OpCancel 1) = Ok r).
Proof.
  intros HI HP HM HR. split; [exact HI|]. split; [exact HP|]. split; [exact HM|]. split; [exact HR|].
  apply client_requests_total; [exact HI | exact HP | split; [exact HM | exact HR] | exact I | exact I].
Qed.

Example client_theorem_applies :
  exists s outs, run (init_sys 0 2) pre_ops = Ok (s, outs) /\
    map t_state (c_tasks (s_core s)) = [Assigned 1 0; Assigned 1 0; Prefilled 1] /\
    INV s /\ PW s /\ MNE (s_core s) /\ RWA (s_core s) /\
    (exists r, step s (OpCancel 1) = Ok r).
Proof.
  destruct (run (init_sys 0 2) pre_ops) as [[s outs]| |] eqn:E; [|vm_compute in E; discriminate | vm_compute in E; discriminate].
  exists s, outs. split; [reflexivity|].
  assert (HI : INV s).
  { eapply (reachable_INV pre_ops 0 2 s outs); [repeat constructor | vm_compute; reflexivity | exact E]. }
  vm_compute in E. inversion E; subst s outs; clear E.
  split; [reflexivity|]. apply cancel_applies.
  - exact HI.
  - reflexivity.
  - intros t Hin. cbn in Hin. destruct Hin as [<-|[<-|[<-|[]]]]; discriminate.
  - intros t w Hin Hst. cbn in Hin. destruct Hin as [<-|[<-|[<-|[]]]]; discriminate.
Qed.
