(** C09 for client requests: the submit handlers are total on a state satisfying the
    invariants for a well-formed request, and the theorem for all client requests. *)
From HQ Require Import Base.Prelude Cluster.Types Cluster.Core Cluster.Reactor Cluster.Server Cluster.Sys Cluster.ProofsJob Cluster.ProofsMore Cluster.ProofsFinal Cluster.BijBase Cluster.BijSt Cluster.BijReact Cluster.BijFinal Cluster.InvWCore Cluster.InvWFinal Cluster.InvQBase Cluster.InvQInv Cluster.InvQTake Cluster.InvQStep Cluster.RejHyp Cluster.InvProcsDef Cluster.InvBundle Cluster.NoPanicC1 Cluster.NoPanicC3 Cluster.NoPanicC2.
From HQ Require Import Cluster.ModelFacts.
From Coq Require Import ZArith Lia Sorting.Sorted.
Local Open Scope N_scope.

Arguments N.add : simpl never.
Arguments N.sub : simpl never.

Lemma find_proc_ids ps w : find_proc ps w <> None <-> In w (map p_id ps).
Proof.
  induction ps as [|h r IH]; cbn [find_proc map In]; [tauto|].
  destruct (N.eqb w (p_id h)) eqn:E.
  - apply N.eqb_eq in E. split; [intros _; left; auto | discriminate].
  - apply N.eqb_neq in E. rewrite IH. split; [intros H; right; exact H | intros [H|H]; [congruence | exact H]].
Qed.

Definition sframe (s s' : st) : Prop :=
  c_tasks (core_of s') = c_tasks (core_of s) /\ c_workers (core_of s') = c_workers (core_of s) /\
  map p_id (s_procs (fst s')) = map p_id (s_procs (fst s)) /\ hq_of s' = hq_of s.

Lemma sframe_refl s : sframe s s. Proof. repeat split. Qed.
Lemma sframe_trans a b c : sframe a b -> sframe b c -> sframe a c.
Proof. intros (A1 & A2 & A3 & A4) (B1 & B2 & B3 & B4). repeat split; congruence. Qed.

Lemma sframe_PWc s s' : sframe s s' -> PWc s -> PWc s'.
Proof.
  intros (_ & Ew & Ep & _) H w Hw. unfold has_proc. apply find_proc_ids. rewrite Ep. apply find_proc_ids.
  apply H. rewrite <- Ew. exact Hw.
Qed.

Lemma get_or_create_rq_sframe s r s4 rqi : get_or_create_rq s r = (s4, rqi) -> sframe s s4.
Proof.
  unfold get_or_create_rq. destruct (rq_index _ r 0); intros H; inversion H; subst; [apply sframe_refl|].
  repeat split. cbn. rewrite map_map. apply map_ext. intros p. reflexivity.
Qed.

Lemma fold_rqs_sframe rqs : forall s l s4 rqis,
  fold_left (fun acc r => let '(s, l) := acc in let '(s', i) := get_or_create_rq s r in (s', l ++ [i])) rqs (s, l) = (s4, rqis) ->
  sframe s s4 /\ length rqis = (length l + length rqs)%nat.
Proof.
  induction rqs as [|r rest IH]; cbn [fold_left]; intros s l s4 rqis H.
  - inversion H; subst. split; [apply sframe_refl | cbn; lia].
  - destruct (get_or_create_rq s r) as [s1 i] eqn:E. destruct (IH _ _ _ _ H) as (F & L). split.
    + eapply sframe_trans; [eapply get_or_create_rq_sframe; exact E | exact F].
    + rewrite L, app_length. cbn. lia.
Qed.

Lemma submit_ok_resp_tot s jid j : find_job (hq_jobs s) jid = Some j -> exists s', submit_ok_resp s jid = Ok s'.
Proof. intros H. unfold submit_ok_resp, hq_get_job. unfold hq_jobs in H. rewrite H. cbn [bind]. eexists; reflexivity. Qed.

Lemma new_tasks_resp_tot s4 jid j' tasks :
  WI (core_of s4) -> QI none [] (core_of s4) -> PWc s4 -> j_id j' = jid ->
  NoDup (map t_id tasks) -> (forall t, In t tasks -> find_task (c_tasks (core_of s4)) (t_id t) = None) ->
  Forall (fun t => (N.to_nat (t_rq t) < length (c_rqs (core_of s4)))%nat) tasks ->
  exists s', (do s6 <- on_new_tasks (hq_set_job s4 j') tasks; submit_ok_resp s6 jid) = Ok s'.
Proof.
  intros HW V Hpw Hid Hnd Hnew Hrq.
  destruct (on_new_tasks_tot (hq_set_job s4 j') tasks HW V Hpw Hnd Hnew Hrq) as (s6 & H6). rewrite H6. cbn [bind].
  apply (submit_ok_resp_tot s6 jid j'). unfold hq_jobs. change (h_jobs (s_hq (fst s6))) with (h_jobs (hq_of s6)).
  rewrite (on_new_tasks_hq _ _ _ H6). change (find_job (hq_jobs (hq_set_job s4 j')) jid = Some j').
  rewrite find_job_hq_set, Hid, N.eqb_refl. reflexivity.
Qed.

Lemma attach_ids_id ids : forall j j', attach_ids j ids = Ok j' -> j_id j' = j_id j.
Proof. intros j j' H. apply (attach_ids_find _ _ _ H). Qed.

Lemma range_from_nodup n : forall a, NoDup (range_from a n).
Proof.
  induction n as [|k IH]; intros a; cbn [range_from]; constructor; [|apply IH].
  intros H. apply range_from_in in H. lia.
Qed.

Lemma max_task_id_ge l : jsorted l -> forall k v, In (k, v) l -> exists m, max_task_id l = Some m /\ k <= m.
Proof.
  induction l as [|[k0 v0] r IH]; intros Hs k v Hin; [destruct Hin|].
  cbn in Hs. destruct Hs as [Hlt Hs]. destruct r as [|[k1 v1] r'].
  - destruct Hin as [Hin|[]]. inversion Hin; subst. exists k. split; [reflexivity | lia].
  - change (max_task_id ((k0, v0) :: (k1, v1) :: r')) with (max_task_id ((k1, v1) :: r')).
    destruct Hin as [Hin|Hin].
    + inversion Hin; subst. destruct (IH Hs k1 v1 (or_introl eq_refl)) as (m & Hm & Hle). exists m. split; [exact Hm|].
      pose proof (Hlt k1 v1 (or_introl eq_refl)). lia.
    + exact (IH Hs k v Hin).
Qed.

Lemma new_id_fresh l i : jsorted l ->
  match max_task_id l with Some m => m + 1 | None => 0 end <= i -> jt_find l i = None.
Proof.
  intros Hs Hle. destruct (jt_find l i) as [v|] eqn:E; [|reflexivity]. exfalso.
  apply jt_find_in in E. destruct (max_task_id_ge l Hs i v E) as (m & Hm & Hi). rewrite Hm in Hle. lia.
Qed.

Lemma take_prefix {A} n (l : list A) : NoDup l -> NoDup (fst (take_n n l)) /\ incl (fst (take_n n l)) l.
Proof.
  intros Hnd. destruct (take_n n l) as [a b] eqn:E. cbn [fst]. pose proof (take_n_app _ _ _ _ E) as ->.
  split; [eapply NoDup_app_l; exact Hnd | intros x Hx; apply in_or_app; left; exact Hx].
Qed.

Lemma find_none_all {A} (p : A -> bool) l : find p l = None -> forall x, In x l -> p x = false.
Proof. intros H x Hx. exact (find_none p l H x Hx). Qed.

Lemma nodup_pair (jid : N) (l : list N) : NoDup l -> NoDup (map (fun i => (jid, i)) l).
Proof.
  induction l as [|a r IH]; cbn [map]; intros H; [constructor|]. inversion H as [|? ? Hn Hr]; subst.
  constructor; [|apply IH; exact Hr]. intros Hin. apply in_map_iff in Hin. destruct Hin as (b & E & Hb). inversion E; subst. contradiction.
Qed.

(** The part of [handle_submit_array] after the job has been determined. *)
Lemma array_tail_tot s3 jid ids' entries rq prio cl tlim j :
  WI (core_of s3) -> QI none [] (core_of s3) -> PWc s3 ->
  find_job (hq_jobs s3) jid = Some j -> NoDup ids' -> (forall i, In i ids' -> jt_find (j_tasks j) i = None) ->
  (forall i, In i ids' -> find_task (c_tasks (core_of s3)) (jid, i) = None) ->
  exists s',
    (let '(s4, rqi) := get_or_create_rq s3 rq in
     do j <- hq_get_job s4 jid 222;
     do j' <- attach_ids j ids';
     let s5 := hq_set_job s4 j' in
     let tids := match entries with Some n => fst (take_n (N.to_nat n) ids') | None => ids' end in
     do s6 <- on_new_tasks s5 (map (fun i => fresh_task (jid, i) [] rqi prio cl tlim) tids);
     submit_ok_resp s6 jid) = Ok s'.
Proof.
  intros HW V Hpw Ef Hnd Hfr Hnew.
  destruct (get_or_create_rq s3 rq) as [s4 rqi] eqn:Erq.
  destruct (get_or_create_rq_QI _ _ _ _ Erq V) as (V4 & Hrqi & _).
  pose proof (get_or_create_rq_WI s3 rq HW) as HW4. rewrite Erq in HW4. cbn [fst] in HW4.
  pose proof (get_or_create_rq_sframe _ _ _ _ Erq) as F. destruct F as (Et & Ew & Ep & Eh).
  assert (Hpw4 : PWc s4) by (apply (sframe_PWc s3 s4); [repeat split; assumption | exact Hpw]).
  unfold hq_get_job. unfold hq_jobs in Ef. change (h_jobs (s_hq (fst s4))) with (h_jobs (hq_of s4)). rewrite Eh.
  change (h_jobs (hq_of s3)) with (h_jobs (s_hq (fst s3))). rewrite Ef. cbn [bind].
  destruct (attach_ids_tot ids' j Hnd Hfr) as (j' & Hj'). rewrite Hj'. cbn [bind]. cbv zeta.
  set (tids := match entries with Some n => fst (take_n (N.to_nat n) ids') | None => ids' end).
  assert (Htids : NoDup tids /\ incl tids ids').
  { subst tids. destruct entries as [n|]; [apply take_prefix; exact Hnd | split; [exact Hnd | apply incl_refl]]. }
  destruct Htids as [Hnt Hit].
  apply new_tasks_resp_tot; try assumption.
  - rewrite (attach_ids_id _ _ _ Hj'). eapply find_job_id. exact Ef.
  - rewrite map_map. cbn [fresh_task t_id]. apply nodup_pair. exact Hnt.
  - intros t Ht. apply in_map_iff in Ht. destruct Ht as (i & <- & Hi). cbn [fresh_task t_id]. rewrite Et. apply Hnew. apply Hit. exact Hi.
  - apply Forall_forall. intros t Ht. apply in_map_iff in Ht. destruct Ht as (i & <- & Hi). cbn [fresh_task t_rq]. exact Hrqi.
Qed.

Lemma unknown_not_in_core s jid i :
  CB s -> (forall l, jt s jid = Some l -> jt_find l i = None) -> find_task (c_tasks (core_of s)) (jid, i) = None.
Proof.
  intros HC H. destruct (find_task (c_tasks (core_of s)) (jid, i)) as [t|] eqn:E; [|reflexivity]. exfalso.
  assert (Hp : present (K s) (jid, i)) by (apply find_task_present; eauto).
  apply (cb_b _ HC) in Hp. destruct Hp as (l & Hl & Ha). cbn [fst snd] in *. rewrite (H l Hl) in Ha. destruct Ha; discriminate.
Qed.

Theorem handle_submit_array_tot s jobsel ids entries rq prio cl tlim mf :
  HOK (hq_of s) -> fresh s -> CB s -> WI (core_of s) -> QI none [] (core_of s) -> PWc s -> NoDup ids ->
  exists s', handle_submit_array s jobsel ids entries rq prio cl tlim mf = Ok s'.
Proof.
  intros Hok Hfr HC HW V Hpw Hnd. unfold handle_submit_array.
  destruct jobsel as [jid0|].
  - destruct (find_job (hq_jobs s) jid0) as [j|] eqn:Ef.
    + destruct (find (fun i => match jt_find (j_tasks j) i with Some _ => true | None => false end) ids) as [dup|] eqn:Edup; [eexists; reflexivity|].
      match goal with |- context [Some (jid0, false, ?x)] => set (ids' := x) end.
      destruct (j_open j) eqn:Eo; cbn [negb bind]; [|eexists; reflexivity].
      pose proof (Hok _ (find_job_in _ _ _ Ef)) as Hj.
      assert (Hjt : jt s jid0 = Some (j_tasks j)) by (unfold jt, hq_of; unfold hq_jobs in Ef; rewrite Ef; reflexivity).
      assert (Hids : NoDup ids' /\ forall i, In i ids' -> jt_find (j_tasks j) i = None).
      { subst ids'. destruct ids as [|i0 ir].
        - destruct entries as [n|].
          + split; [apply range_from_nodup|]. intros i Hi. apply range_from_in in Hi. apply new_id_fresh; [exact (jok_sorted _ Hj) | lia].
          + split; [constructor; [intros [] | constructor]|]. intros i [<-|[]]. apply new_id_fresh; [exact (jok_sorted _ Hj) | lia].
        - split; [exact Hnd|]. intros i Hi. pose proof (find_none_all _ _ Edup i Hi) as Hx. cbn beta in Hx.
          destruct (jt_find (j_tasks j) i); [discriminate | reflexivity]. }
      destruct Hids as [Hnd' Hfresh].
      apply (array_tail_tot _ jid0 ids' entries rq prio cl tlim j); try assumption.
      intros i Hi. apply (unknown_not_in_core s jid0 i HC). intros l Hl. rewrite Hjt in Hl. inversion Hl; subst l. apply Hfresh. exact Hi.
    + cbn [bind]. eexists; reflexivity.
  - match goal with |- context [Some (hq_counter s, true, ?x)] => set (ids' := x) end.
    cbn [bind].
    assert (Hnd' : NoDup ids').
    { subst ids'. destruct ids as [|i0 ir]; [|exact Hnd]. destruct entries as [n|]; [apply range_from_nodup | constructor; [intros [] | constructor]]. }
    set (jid := hq_counter s). set (nj := mkJob jid false [] 0 0 0 0 0 false mf).
    cbv iota beta.
    apply (array_tail_tot _ jid ids' entries rq prio cl tlim nj); try assumption.
    + unfold hq_jobs, hq_with, emit. cbn [fst snd with_hq s_hq h_jobs]. rewrite find_job_set. cbn [j_id nj]. rewrite N.eqb_refl. reflexivity.
    + intros i _. reflexivity.
    + intros i _. apply (unknown_not_in_core s jid i HC). intros l Hl. exfalso.
      pose proof (fresh_absent s Hfr) as Ha. change (cnt_of s) with jid in Ha. congruence.
Qed.

Lemma graph_ids_fresh_tot j n ts : (forall g, In g ts -> gt_rq g < N.of_nat n) ->
  exists v, graph_ids_fresh j n ts = Ok v /\ (v = None -> forall g, In g ts -> jt_find (j_tasks j) (gt_id g) = None).
Proof.
  induction ts as [|g r IH]; intros H; cbn [graph_ids_fresh].
  - exists None. split; [reflexivity|]. intros _ g [].
  - destruct (jt_find (j_tasks j) (gt_id g)) eqn:E.
    + eexists. split; [reflexivity|]. discriminate.
    + assert (Hl : N.ltb (gt_rq g) (N.of_nat n) = true) by (apply N.ltb_lt; apply H; left; reflexivity). rewrite Hl.
      destruct IH as (v & Hv & Hn); [intros g' Hg'; apply H; right; exact Hg'|]. exists v. split; [exact Hv|].
      intros Ev g' [<-|Hg']; [exact E | apply Hn; assumption].
Qed.

Lemma validate_graph_nodup jt0 ts : forall seen, validate_graph jt0 seen ts = None ->
  NoDup (map gt_id ts) /\ forall g, In g ts -> ~ In (gt_id g) seen.
Proof.
  induction ts as [|g r IH]; intros seen H; cbn [validate_graph map] in *.
  - split; [constructor | intros g []].
  - destruct (n_mem (gt_id g) seen) eqn:Em; [discriminate|].
    destruct (find _ (gt_deps g)); [discriminate|].
    destruct (IH _ H) as [Hnd Hseen]. split.
    + constructor; [|exact Hnd]. intros Hin. apply in_map_iff in Hin. destruct Hin as (g' & Eg & Hg').
      apply (Hseen g' Hg'). left. symmetry. exact Eg.
    + intros g' [<-|Hg'].
      * intros Hin. apply n_mem_In in Hin. congruence.
      * intros Hin. apply (Hseen g' Hg'). right. exact Hin.
Qed.

Lemma graph_tasks_tot jid rqis ts : (forall g, In g ts -> (N.to_nat (gt_rq g) < length rqis)%nat) ->
  exists tasks, graph_tasks jid rqis ts = Ok tasks.
Proof.
  induction ts as [|g r IH]; intros H; cbn [graph_tasks]; [eexists; reflexivity|].
  destruct (nth_error_ex rqis _ (H g (or_introl eq_refl))) as (rqi & ->).
  destruct IH as (rest & ->); [intros g' Hg'; apply H; right; exact Hg'|]. cbn [bind]. eexists; reflexivity.
Qed.

Lemma graph_tail_tot s3 jid rqs ts j :
  WI (core_of s3) -> QI none [] (core_of s3) -> PWc s3 ->
  find_job (hq_jobs s3) jid = Some j -> NoDup (map gt_id ts) -> (forall g, In g ts -> jt_find (j_tasks j) (gt_id g) = None) ->
  (forall g, In g ts -> find_task (c_tasks (core_of s3)) (jid, gt_id g) = None) ->
  (forall g, In g ts -> gt_rq g < N.of_nat (length rqs)) ->
  exists s',
    (let '(s4, rqis) := fold_left (fun acc r => let '(s, l) := acc in let '(s', i) := get_or_create_rq s r in (s', l ++ [i])) rqs (s3, []) in
     do j <- hq_get_job s4 jid 222;
     do j' <- attach_ids j (map gt_id ts);
     let s5 := hq_set_job s4 j' in
     do tasks <- graph_tasks jid rqis ts;
     do s6 <- on_new_tasks s5 tasks;
     submit_ok_resp s6 jid) = Ok s'.
Proof.
  intros HW V Hpw Ef Hnd Hfr Hnew Hrq.
  destruct (fold_left _ rqs (s3, [])) as [s4 rqis] eqn:Efold.
  destruct (fold_rqs_QI _ _ _ _ _ Efold V (Forall_nil _)) as (V4 & Hrqis).
  pose proof (fold_rqs_WI _ _ _ _ _ Efold HW) as HW4.
  destruct (fold_rqs_sframe _ _ _ _ _ Efold) as ((Et & Ew & Ep & Eh) & Hlen). cbn [length plus] in Hlen.
  assert (Hpw4 : PWc s4) by (apply (sframe_PWc s3 s4); [repeat split; assumption | exact Hpw]).
  unfold hq_get_job. unfold hq_jobs in Ef. change (h_jobs (s_hq (fst s4))) with (h_jobs (hq_of s4)). rewrite Eh.
  change (h_jobs (hq_of s3)) with (h_jobs (s_hq (fst s3))). rewrite Ef. cbn [bind].
  destruct (attach_ids_tot (map gt_id ts) j Hnd) as (j' & Hj').
  { intros i Hi. apply in_map_iff in Hi. destruct Hi as (g & <- & Hg). apply Hfr. exact Hg. }
  rewrite Hj'. cbn [bind]. cbv zeta.
  destruct (graph_tasks_tot jid rqis ts) as (tasks & Htasks).
  { intros g Hg. rewrite Hlen. specialize (Hrq g Hg). lia. }
  rewrite Htasks. cbn [bind].
  destruct (graph_tasks_spec _ _ _ _ Htasks) as (Hids & _). pose proof (graph_tasks_rq _ _ _ _ Htasks) as Hrqs.
  apply new_tasks_resp_tot; try assumption.
  - rewrite (attach_ids_id _ _ _ Hj'). eapply find_job_id. exact Ef.
  - rewrite Hids. apply nodup_pair. exact Hnd.
  - intros t Ht. assert (Hin : In (t_id t) (map t_id tasks)) by (apply in_map; exact Ht). rewrite Hids, map_map in Hin.
    apply in_map_iff in Hin. destruct Hin as (g & E & Hg). rewrite <- E, Et. apply Hnew. exact Hg.
  - rewrite Forall_forall in *. intros t Ht. apply Hrqis. apply Hrqs. exact Ht.
Qed.

Theorem handle_submit_graph_tot s jobsel rqs ts mf :
  HOK (hq_of s) -> fresh s -> CB s -> WI (core_of s) -> QI none [] (core_of s) -> PWc s ->
  (forall g, In g ts -> gt_rq g < N.of_nat (length rqs)) ->
  exists s', handle_submit_graph s jobsel rqs ts mf = Ok s'.
Proof.
  intros Hok Hfr HC HW V Hpw Hrq. unfold handle_submit_graph.
  destruct jobsel as [jid0|].
  - destruct (find_job (hq_jobs s) jid0) as [j|] eqn:Ef.
    + destruct (graph_ids_fresh_tot j (length rqs) ts Hrq) as (v1 & Hv1 & Hfresh). rewrite Hv1. cbn [bind].
      destruct v1 as [e|]; [eexists; reflexivity|].
      destruct (validate_graph (j_tasks j) [] ts) as [e|] eqn:Ev; [eexists; reflexivity|].
      destruct (j_open j) eqn:Eo; cbn [negb bind]; [|eexists; reflexivity].
      assert (Hjt : jt s jid0 = Some (j_tasks j)) by (unfold jt, hq_of; unfold hq_jobs in Ef; rewrite Ef; reflexivity).
      apply (graph_tail_tot _ jid0 rqs ts j); try assumption.
      * exact (proj1 (validate_graph_nodup _ _ _ Ev)).
      * exact (Hfresh eq_refl).
      * intros g Hg. apply (unknown_not_in_core s jid0 (gt_id g) HC). intros l Hl. rewrite Hjt in Hl. inversion Hl; subst l. apply (Hfresh eq_refl). exact Hg.
    + cbn [bind]. destruct (validate_graph [] [] ts); cbn [bind]; eexists; reflexivity.
  - cbn [bind]. destruct (validate_graph [] [] ts) as [e|] eqn:Ev; [eexists; reflexivity|]. cbn [bind].
    set (jid := hq_counter s). set (nj := mkJob jid false [] 0 0 0 0 0 false mf).
    cbv iota beta.
    apply (graph_tail_tot _ jid rqs ts nj); try assumption.
    + unfold hq_jobs, hq_with, emit. cbn [fst snd with_hq s_hq h_jobs]. rewrite find_job_set. cbn [j_id nj]. rewrite N.eqb_refl. reflexivity.
    + exact (proj1 (validate_graph_nodup _ _ _ Ev)).
    + intros g _. reflexivity.
    + intros g _. apply (unknown_not_in_core s jid (gt_id g) HC). intros l Hl. exfalso.
      pose proof (fresh_absent s Hfr) as Ha. change (cnt_of s) with jid in Ha. congruence.
Qed.

Lemma handle_close_tot s jid : HOK (hq_of s) -> exists s', handle_close s jid = Ok s'.
Proof.
  intros H. unfold handle_close. destruct (find_job (hq_jobs s) jid) as [j|] eqn:Ef; [|eexists; reflexivity].
  destruct (j_open j) eqn:Eo; [|eexists; reflexivity].
  set (j' := mkJob (j_id j) false (j_tasks j) (j_nrun j) (j_nfin j) (j_nfail j) (j_ncanc j) (j_nabort j) (j_completed j) (j_maxfails j)).
  destruct (check_termination_tot (emit (hq_set_job s j') (OEv (EvClose jid))) jid j') as (s1 & ->).
  - rewrite emit_hq. apply hq_set_job_ok; [exact H|].
    pose proof (H _ (find_job_in _ _ _ Ef)) as [Ss R F X C A Cm]. constructor; cbn; auto.
    intros Hcm. destruct (Cm Hcm) as (Ho & _). congruence.
  - change (find_job (hq_jobs (hq_set_job s j')) jid = Some j'). rewrite find_job_hq_set.
    replace (j_id j') with jid by (symmetry; exact (find_job_id _ _ _ Ef)). rewrite N.eqb_refl. reflexivity.
  - cbn [bind]. eexists; reflexivity.
Qed.

Lemma handle_forget_tot s jid : HOK (hq_of s) -> exists s', handle_forget s jid = Ok s'.
Proof.
  intros H. unfold handle_forget. destruct (find_job (hq_jobs s) jid) as [j|] eqn:Ef; [|eexists; reflexivity].
  rewrite (has_no_active_ok _ (H _ (find_job_in _ _ _ Ef))). cbn [bind]. destruct (negb (j_open j) && _); eexists; reflexivity.
Qed.

Definition client_op (o : op) : Prop :=
  match o with
  | OpOpen _ | OpClose _ | OpCancel _ | OpForget _ | OpPrune => True
  | OpSubmit _ _ _ _ _ _ _ _ | OpSubmitG _ _ _ _ => True
  | _ => False
  end.

(** Well-formedness of a request.  Array: the explicit ids are pairwise distinct (the real [IntArray]
    is a sorted set, so this holds of every message that deserialises).  Graph: nothing - a task
    graph whose task names a request index outside the request list of the message used to panic
    the real server (assertion in [validate_submit] / index in [build_tasks_graph], sites 223 / 224 of
    the model: finding F27); since the repair it is refused with an error before anything else is
    looked at ([Sys.bad_graph_rq]), so sites 223 / 224 are unreachable. *)
Definition op_ok (s : sys) (o : op) : Prop :=
  match o with
  | OpSubmit _ ids _ _ _ _ _ _ => NoDup ids
  | _ => True
  end.

Lemma bad_graph_rq_none n ts : bad_graph_rq n ts = None -> forall g, In g ts -> gt_rq g < N.of_nat n.
Proof.
  induction ts as [|h r IH]; cbn [bad_graph_rq]; intros H g Hin; [destruct Hin|].
  destruct (N.ltb (gt_rq h) (N.of_nat n)) eqn:E; [|discriminate].
  destruct Hin as [<-|Hin]; [apply N.ltb_lt; exact E | exact (IH H g Hin)].
Qed.

(** The two facts about the pre-state that [INV] lacks, needed by the cancel request only. *)
Definition cancel_pre (s : sys) (o : op) : Prop :=
  match o with OpCancel _ => MNE (s_core s) /\ RWA (s_core s) | _ => True end.

(** Every client request is in fact processed ([Ok], neither [Panic] nor [Disabled]). *)
Theorem client_requests_total s o :
  INV s -> PW s -> cancel_pre s o -> client_op o -> op_ok s o -> exists r, step s o = Ok r.
Proof.
  intros [Hok Hfr HC HW HQ _ HG _] Hpw Hcp Hco Hwf.
  pose proof (PW_PWc s [] Hpw) as Hpwc.
  destruct o; try (destruct Hco; fail); cbn [step].
  - destruct (bad_submit_lengths _ _); [eexists; reflexivity|]. apply handle_submit_array_tot; assumption.
  - destruct (bad_graph_rq _ _) eqn:Eb; [eexists; reflexivity|]. destruct (dead_dep _ _ _); [eexists; reflexivity|]. apply handle_submit_graph_tot; try assumption. exact (bad_graph_rq_none _ _ Eb).
  - eexists; reflexivity.
  - apply handle_close_tot. exact Hok.
  - destruct Hcp as [Hmn Hrw]. apply handle_cancel_tot; assumption.
  - apply handle_forget_tot. exact Hok.
  - destruct (live_jobs_tot (h_jobs (s_hq s)) Hok) as (l & ->). eexists; reflexivity.
Qed.

Theorem client_requests_never_panic s o :
  INV s -> PW s -> cancel_pre s o -> client_op o -> op_ok s o -> is_panic (step s o) = false.
Proof. intros HI Hpw Hcp Hco Hwf. destruct (client_requests_total s o HI Hpw Hcp Hco Hwf) as (r & ->). reflexivity. Qed.
