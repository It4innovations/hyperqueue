(** Protocol invariant, part 18: one scheduling round ([OpSched]) preserves [PROTO]. *)
From HQ Require Import Base.Prelude Cluster.Types Cluster.Core Cluster.Reactor Cluster.Worker Cluster.Server Cluster.Sys Cluster.ProofsJob Cluster.ProofsMore Cluster.InvQBase Cluster.InvQTake Cluster.NoPanicU0 Cluster.NoPanicU1 Cluster.NoPanicU2 Cluster.NoPanicU4 Cluster.NoPanicU6 Cluster.NoPanicU7 Cluster.NoPanicU8 Cluster.NoPanicU9 Cluster.NoPanicU10 Cluster.NoPanicU11 Cluster.NoPanicU16.
From HQ Require Import Cluster.ModelFacts.
From Coq Require Import ZArith Lia Sorting.Sorted Sorting.Permutation.
Local Open Scope N_scope.

Notation jactive := NoPanicU6.jactive.
Notation x0 := NoPanicU6.x0.
Notation tsorted := NoPanicU6.tsorted.

Lemma SP_sched_point s c pd c' pd' y t t' (ext : wid -> list ditem) :
  SP x0 (st_core s c) no_pum pd ->
  find_task (c_tasks c) y = Some t ->
  (forall z, find_task (c_tasks c') z = if tid_eqb z y then Some t' else find_task (c_tasks c) z) ->
  tsorted c' -> c_rqs c' = c_rqs c -> (forall r, In r (c_redirects c') -> snd (snd r) = 0) ->
  (forall w' z, z <> y -> ditems z (msgs_for w' pd') = ditems z (msgs_for w' pd)) ->
  (forall w', ditems y (msgs_for w' pd') = ditems y (msgs_for w' pd) ++ ext w') ->
  (forall w' p U L D, find_proc (s_procs (fst s)) w' = Some p ->
     lang (view_of (t_state t) w' (job_running (hq_of s) y)) U L D = true ->
     lang (view_of (t_state t') w' (job_running (hq_of s) y)) U L (D ++ ext w') = true) ->
  mn_task_ok c' t' = true -> jr_ok (hq_of s) t' = true -> (forall w1 rv, t_state t' = Assigned w1 rv -> rv = 0) ->
  (forall w' p, find_proc (s_procs (fst s)) w' = Some p ->
     down_ok (c_rqs c') (N.of_nat (length (p_rqs p))) (p_down p ++ msgs_for w' pd') = true
     /\ newrq_defs (msgs_for w' pd') = newrq_defs (msgs_for w' pd)) ->
  (forall w' z, In z (flat_map dmsg_tids (msgs_for w' pd')) -> find_task (c_tasks c) z <> None) ->
  SP x0 (st_core s c') no_pum pd'.
Proof.
  intros HS Hy Hfind Hcs Erq Hred Hoth Hity Hview Hm Hj Hrv Htab Htids.
  change (st_core s c') with (mkSys c' (hq_of (st_core s c)) (s_procs (fst (st_core s c))), snd (st_core s c)).
  apply (SP_gen (fun z => tid_eqb z y) x0 x0 (st_core s c) no_pum pd c' _ _ no_pum pd' HS Hcs Erq Hred).
  - intros z tz E Hz _. rewrite Hfind, E in Hz. exists tz. repeat split; assumption.
  - intros w' z E. split; [reflexivity|]. apply Hoth. apply tid_eqb_neq. exact E.
  - auto.
  - intros z tz Hz. rewrite Hfind in Hz. change (core_of (st_core s c)) with c. destruct (tid_eqb z y) eqn:E; [apply tid_eqb_eq in E; subst z|]; congruence.
  - intros w' p z Hp [[]|Hz]. destruct (find_task (c_tasks c) z) as [tz|] eqn:E; [eapply (sp_pres _ _ _ _ HS); exact E | exfalso; exact (Htids w' z Hz E)].
  - intros w' p Hp. apply Htab with (p := p). exact Hp.
  - auto.
  - intros x tx E Hx _. apply tid_eqb_eq in E. subst x. rewrite Hfind, tid_eqb_refl in Hx. inversion Hx; subst tx. clear Hx.
    change (hq_of (st_core s c)) with (hq_of s).
    split; [exact (sp_act _ _ _ _ HS _ _ Hy eq_refl)|]. split; [exact Hm|]. split; [exact Hj|]. split; [exact Hrv|].
    intros w' p Hp. rewrite ditems_app, Hity, app_assoc, <- ditems_app. apply (Hview w' p); [exact Hp|].
    exact (sp_words _ _ _ _ HS w' p y t Hp Hy eq_refl).
Qed.

(** * Queues: the members of queue [i] are tasks of request class [i] *)
Definition QR (c : core) : Prop :=
  Forall WFQ (c_queues c) /\
  forall i q id, nth_error (c_queues c) i = Some q -> member q id -> exists t, find_task (c_tasks c) id = Some t /\ N.to_nat (t_rq t) = i.

Lemma nth_set_queue qs : forall i q j, nth_error (set_queue qs i q) j = if Nat.eqb j i then match nth_error qs i with Some _ => Some q | None => None end else nth_error qs j.
Proof.
  induction qs as [|h r IH]; intros i q j; cbn [set_queue].
  - destruct (Nat.eqb j i); destruct i, j; reflexivity.
  - destruct i, j; cbn [nth_error Nat.eqb]; try reflexivity. apply IH.
Qed.

Lemma QR_set_queue c i q q' :
  QR c -> nth_error (c_queues c) i = Some q -> WFQ q' -> (forall x, member q' x -> member q x) ->
  QR (with_queues c (set_queue (c_queues c) i q')).
Proof.
  intros [Hw Hm] Hq Hw' Hsub. split; cbn [with_queues c_queues c_tasks].
  - apply set_queue_Forall; assumption.
  - intros j q0 id Hj Hmem. rewrite nth_set_queue in Hj. destruct (Nat.eqb j i) eqn:E.
    + apply Nat.eqb_eq in E. subst j. rewrite Hq in Hj. inversion Hj; subst q0. apply (Hm i q id Hq). apply Hsub. exact Hmem.
    + apply (Hm j q0 id Hj Hmem).
Qed.

Lemma QR_tasks c c' : QR c -> c_queues c' = c_queues c ->
  (forall id t, find_task (c_tasks c) id = Some t -> exists t', find_task (c_tasks c') id = Some t' /\ t_rq t' = t_rq t) -> QR c'.
Proof.
  intros [Hw Hm] Eq Ht. split; rewrite Eq; [exact Hw|]. intros i q id Hq Hmem. destruct (Hm i q id Hq Hmem) as (t & Hf & Er).
  destruct (Ht _ _ Hf) as (t' & Hf' & Er'). exists t'. split; [exact Hf' | congruence].
Qed.

Lemma cit_notin y l : ~ In y (map fst l) -> cit y l = [].
Proof.
  unfold cit. induction l as [|[i v] r IH]; [reflexivity|]. cbn [map fst flat_map In snd]. intros Hn.
  rewrite sel_other by (intros ->; apply Hn; left; reflexivity). apply IH. intros X. apply Hn. right. exact X.
Qed.
Lemma pit_notin y l : ~ In y l -> pit y l = [].
Proof.
  unfold pit. induction l as [|i r IH]; [reflexivity|]. cbn [flat_map In]. intros Hn.
  rewrite sel_other by (intros ->; apply Hn; left; reflexivity). apply IH. intros X. apply Hn. right. exact X.
Qed.
Lemma pit_snoc y l x : pit y (l ++ [x]) = pit y l ++ sel x y (IDC None false).
Proof. unfold pit. rewrite flat_map_app. cbn [flat_map]. rewrite app_nil_r. reflexivity. Qed.
Lemma pit_app y a b : pit y (a ++ b) = pit y a ++ pit y b.
Proof. unfold pit. apply flat_map_app. Qed.
Lemma cit_app y a b : cit y (a ++ b) = cit y a ++ cit y b.
Proof. unfold cit. apply flat_map_app. Qed.
Lemma dret_app y a b : dret y (a ++ b) = dret y a ++ dret y b.
Proof. unfold dret. apply flat_map_app. Qed.
Lemma dret_notin y l : ~ In y l -> dret y l = [].
Proof. intros Hn. apply dret_mem. destruct (tid_mem y l) eqn:E; [apply tid_mem_In in E; contradiction | reflexivity]. Qed.

Lemma mnmsg_items c id w y : y <> id -> ditems y (msgs_for w [mnmsg c id]) = [].
Proof.
  intros Hne. destruct (mnmsg c id) as [w0 m0] eqn:E. rewrite msgs_for_cons, msgs_for_nil. destruct (N.eqb w0 w); [|reflexivity].
  cbn [ditems flat_map]. rewrite app_nil_r. unfold mnmsg in E. destruct (find_task (c_tasks c) id) as [t|] eqn:Ef; [|inversion E; reflexivity].
  destruct (t_state t) as [n1|w2 r2|w2|w2|w2 r2|[|w1 ws]|]; inversion E; subst; try reflexivity.
  cbn [ditems_msg flat_map ctask_of ct_id]. rewrite (proj2 (find_task_some _ _ _ Ef)), sel_other by congruence. reflexivity.
Qed.
Lemma mit_notin c mn w y : ~ In y mn -> mit c mn w y = [].
Proof.
  unfold mit. induction mn as [|id r IH]; [reflexivity|]. intros Hn. cbn [map].
  change (mnmsg c id :: map (mnmsg c) r) with ([mnmsg c id] ++ map (mnmsg c) r). rewrite msgs_for_app, ditems_app, IH by (intros X; apply Hn; right; exact X).
  rewrite mnmsg_items by (intros ->; apply Hn; left; reflexivity). reflexivity.
Qed.

Lemma uit_get m w z : match wfind m w with Some u => uit z u | None => [] end = uit z (wu_get m w).
Proof. rewrite wu_get_wfind. destruct (wfind m w); reflexivity. Qed.

Lemma items_wu_set c m mn u' w' z : NoDup (map wu_w m) ->
  ditems z (msgs_for w' (pdM c (wu_set m u') mn)) =
  (if N.eqb w' (wu_w u') then uit z u' else uit z (wu_get m w')) ++ mit c mn w' z.
Proof. intros Hn. rewrite (pdM_items c _ mn w' z (wu_set_nodup m u' Hn)), wfind_set. destruct (N.eqb w' (wu_w u')); [reflexivity | rewrite uit_get; reflexivity]. Qed.
Lemma items_pdM c m mn w' z : NoDup (map wu_w m) -> ditems z (msgs_for w' (pdM c m mn)) = uit z (wu_get m w') ++ mit c mn w' z.
Proof. intros Hn. rewrite (pdM_items c m mn w' z Hn), uit_get. reflexivity. Qed.

Lemma pdM_frame c c' m mn y t t' :
  find_task (c_tasks c) y = Some t ->
  (forall z, find_task (c_tasks c') z = if tid_eqb z y then Some t' else find_task (c_tasks c) z) ->
  tdata t' = tdata t -> ~ In y mn -> pdM c' m mn = pdM c m mn.
Proof.
  intros Hy Hfind Etd Hn. unfold pdM. f_equal.
  - assert (Ht : forall z, option_map tdata (find_task (c_tasks c') z) = option_map tdata (find_task (c_tasks c) z)).
    { intros z. rewrite Hfind. destruct (tid_eqb z y) eqn:E; [|reflexivity]. apply tid_eqb_eq in E. subst z. rewrite Hy. cbn. rewrite Etd. reflexivity. }
    induction m as [|u r IH]; [reflexivity|]. cbn [flat_map]. rewrite IH, (umsgs_frame c c' u Ht). reflexivity.
  - apply map_ext_in. intros id Hid. unfold mnmsg. rewrite Hfind. destruct (tid_eqb id y) eqn:E; [|reflexivity]. apply tid_eqb_eq in E. subst id. contradiction.
Qed.

Record RI (pf : bool) (s : st) (c : core) (m : list wupd) (mn : list tid) : Prop := mkRI {
  ri_sp : SP x0 (st_core s c) no_pum (pdM c m mn);
  ri_nd : NoDup (map wu_w m);
  ri_ok : POK c m mn;
  ri_ment : forall y, ment m mn y -> find_task (c_tasks c) y <> None;
  ri_qr : QR c;
  ri_pf : pf = false -> forall u, In u m -> wu_prefills u = [];
  ri_asg : forall u y v, In u m -> In (y, v) (wu_assigned u) -> exists t, find_task (c_tasks c) y = Some t /\ t_state t = Assigned (wu_w u) v;
  ri_nda : forall u, In u m -> NoDup (map fst (wu_assigned u));
  ri_mnst : forall id, In id mn -> exists t ws, find_task (c_tasks c) id = Some t /\ t_state t = RunningMN ws;
  ri_rq : c_rqs c = c_rqs (core_of s)
}.

Lemma wu_get_in m w : In (wu_get m w) m \/ wu_get m w = mkWU w [] [] [].
Proof. rewrite wu_get_wfind. destruct (wfind m w) as [u|] eqn:E; [left; eapply wfind_in; exact E | right; reflexivity]. Qed.

Lemma RI_tab pf s c m mn c' m' mn' w' p :
  RI pf s c m mn -> POK c' m' mn' -> c_rqs c' = c_rqs c -> find_proc (s_procs (fst s)) w' = Some p ->
  down_ok (c_rqs c') (N.of_nat (length (p_rqs p))) (p_down p ++ msgs_for w' (pdM c' m' mn')) = true
  /\ newrq_defs (msgs_for w' (pdM c' m' mn')) = newrq_defs (msgs_for w' (pdM c m mn)).
Proof.
  intros HR HP' Erq Hp. rewrite (pdM_newrq c m mn w' (ri_ok _ _ _ _ _ HR)).
  rewrite Erq. apply (tab_pending2 x0 (st_core s c) no_pum (pdM c m mn) w' p _ (ri_sp _ _ _ _ _ HR) Hp (pdM_newrq c m mn w' (ri_ok _ _ _ _ _ HR))).
  intros msg Hmsg. change (core_of (st_core s c)) with c. rewrite <- Erq. apply (pdM_ok c' m' mn' HP' w'). exact Hmsg.
Qed.

Lemma RI_not_mn pf s c m mn y t : RI pf s c m mn -> find_task (c_tasks c) y = Some t ->
  (forall ws, t_state t <> RunningMN ws) -> ~ In y mn.
Proof. intros HR Hy Hst Hin. destruct (ri_mnst _ _ _ _ _ HR y Hin) as (t0 & ws & Hf & Est). rewrite Hy in Hf. inversion Hf; subst t0. exact (Hst ws Est). Qed.
Lemma RI_not_asg pf s c m mn y t u : RI pf s c m mn -> find_task (c_tasks c) y = Some t ->
  (forall w v, t_state t <> Assigned w v) -> In u m -> ~ In y (map fst (wu_assigned u)).
Proof.
  intros HR Hy Hst Hu Hin. apply in_map_iff in Hin. destruct Hin as ([y0 v] & E & Hin). cbn in E. subst y0.
  destruct (ri_asg _ _ _ _ _ HR u y v Hu Hin) as (t0 & Hf & Est). rewrite Hy in Hf. inversion Hf; subst t0. exact (Hst _ _ Est).
Qed.
Lemma get_not_asg pf s c m mn y t w : RI pf s c m mn -> find_task (c_tasks c) y = Some t ->
  (forall w v, t_state t <> Assigned w v) -> ~ In y (map fst (wu_assigned (wu_get m w))).
Proof.
  intros HR Hy Hst. destruct (wu_get_in m w) as [Hin| ->]; [eapply RI_not_asg; eassumption | intros []].
Qed.

(** The common part of the transitions: task [y], waiting or prefilled, gets the state [st']; the
    pending messages of the round get the items [ext w'] of [y] (at their ends) and nothing else;
    the round's lists [m'], [mn'] mention, beside what [m], [mn] mention, only [y], in the place
    that matches [st']. *)
Lemma RI_point pf s c c' m mn m' mn' y t st' (ext : wid -> list ditem) :
  RI pf s c m mn -> find_task (c_tasks c) y = Some t ->
  match t_state t with Waiting _ | Prefilled _ => True | _ => False end ->
  match st' with Running _ _ => False | _ => True end ->
  (forall z, find_task (c_tasks c') z = if tid_eqb z y then Some (with_state t st') else find_task (c_tasks c) z) ->
  tsorted c' -> c_rqs c' = c_rqs c -> (forall r, In r (c_redirects c') -> snd (snd r) = 0) -> c_queues c' = c_queues c ->
  mn_task_ok c (with_state t st') = true -> (forall w1 rv, st' = Assigned w1 rv -> rv = 0) ->
  (forall w' U L D, lang (view_of (t_state t) w' false) U L D = true -> lang (view_of st' w' false) U L (D ++ ext w') = true) ->
  NoDup (map wu_w m') ->
  (forall w' z, ditems z (msgs_for w' (pdM c' m' mn')) = ditems z (msgs_for w' (pdM c m mn)) ++ if tid_eqb z y then ext w' else []) ->
  (forall u0 y0 v0, In u0 m' -> In (y0, v0) (wu_assigned u0) ->
     (exists u1, In u1 m /\ wu_w u1 = wu_w u0 /\ In (y0, v0) (wu_assigned u1)) \/ (y0 = y /\ v0 = 0 /\ st' = Assigned (wu_w u0) v0)) ->
  (forall z, ment m' mn' z -> z = y \/ ment m mn z) ->
  (pf = false -> forall u0, In u0 m' -> wu_prefills u0 = []) ->
  (forall u0, In u0 m' -> NoDup (map fst (wu_assigned u0))) ->
  (forall id, In id mn' -> In id mn \/ (id = y /\ exists ws, st' = RunningMN ws)) ->
  RI pf s c' m' mn'.
Proof.
  intros HR Hy Hold Hnew Hfind Hcs Erq Hred Eq Hm Hrv Hview Hnd' Hit Hasg Hment Hpf Hnda Hmn'.
  set (t' := with_state t st') in *. pose proof (ri_sp _ _ _ _ _ HR) as HS.
  destruct (find_task_some _ _ _ Hy) as [_ Eid].
  assert (Hjr : job_running (hq_of s) y = false).
  { pose proof (sp_jr _ _ _ _ HS _ _ Hy eq_refl) as J. unfold jr_ok in J. rewrite Eid in J.
    destruct (t_state t); try contradiction; apply negb_true_iff in J; exact J. }
  assert (Hpres : forall z tz, find_task (c_tasks c) z = Some tz -> exists tz', find_task (c_tasks c') z = Some tz' /\ t_rq tz' = t_rq tz).
  { intros z tz Hz. rewrite Hfind. destruct (tid_eqb z y) eqn:E; [|eauto]. apply tid_eqb_eq in E. subst z. rewrite Hy in Hz. injection Hz as <-. exists t'. auto. }
  (* a task that the round has assigned or placed on several workers already is not [y] *)
  assert (Hkeep : forall z tz, find_task (c_tasks c) z = Some tz -> match t_state tz with Waiting _ | Prefilled _ => False | _ => True end ->
            find_task (c_tasks c') z = Some tz).
  { intros z tz Hz Hst. rewrite Hfind. destruct (tid_eqb z y) eqn:E; [|exact Hz]. apply tid_eqb_eq in E. subst z. rewrite Hy in Hz. injection Hz as <-.
    destruct (t_state t); contradiction. }
  assert (Hknown : forall z, ment m' mn' z -> find_task (c_tasks c) z <> None).
  { intros z Hz. destruct (Hment z Hz) as [->|Hz0]; [congruence | exact (ri_ment _ _ _ _ _ HR z Hz0)]. }
  assert (HP' : POK c' m' mn').
  { destruct (ri_ok _ _ _ _ _ HR) as [Pa Pm]. split.
    - intros u0 y0 v0 Hu0 Hin. destruct (Hasg u0 y0 v0 Hu0 Hin) as [(u1 & Hu1 & _ & Hin1)|(-> & -> & Est')].
      + destruct (Pa u1 y0 v0 Hu1 Hin1) as (A & tz & Hz & Hlt). split; [exact A|]. destruct (Hpres _ _ Hz) as (tz' & Hz' & Er). exists tz'. rewrite Erq, Er. auto.
      + split; [reflexivity|]. exists t'. rewrite Hfind, tid_eqb_refl, Erq. split; [reflexivity|].
        unfold mn_task_ok in Hm. cbn [t' with_state t_state t_rq] in Hm |- *. rewrite Est' in Hm. apply nth_error_Some. intros X. rewrite X in Hm. discriminate.
    - intros id tz w0 ws Hid Hz Hst. rewrite Hfind in Hz. destruct (tid_eqb id y) eqn:E.
      + injection Hz as <-. unfold mn_task_ok in Hm. cbn [t' with_state t_state t_rq] in Hm, Hst |- *. rewrite Hst in Hm. rewrite Erq.
        destruct (nth_error (c_rqs c) (N.to_nat (t_rq t))) as [r|] eqn:Er; [|discriminate]. exists r. split; [reflexivity|].
        pose proof (sp_mnrq _ _ _ _ HS) as M. unfold mn_rqs_ok in M. rewrite forallb_forall in M. specialize (M r (nth_error_In _ _ Er)). rewrite Hm in M. exact M.
      + destruct (Hmn' id Hid) as [Hid0|(-> & _)]; [|rewrite tid_eqb_refl in E; discriminate]. rewrite Erq. eapply Pm; eassumption. }
  constructor.
  - apply (SP_sched_point s c (pdM c m mn) c' (pdM c' m' mn') y t t' ext HS Hy Hfind Hcs Erq Hred).
    + intros w' z Hz. apply tid_eqb_neq in Hz. rewrite Hit, Hz, app_nil_r. reflexivity.
    + intros w'. rewrite Hit, tid_eqb_refl. reflexivity.
    + intros w' p U L D _ Hl. rewrite Hjr in *. apply Hview. exact Hl.
    + unfold mn_task_ok in *. rewrite Erq. exact Hm.
    + unfold jr_ok. cbn [t' with_state t_state t_id]. rewrite Eid, Hjr. destruct st'; try reflexivity. contradiction.
    + exact Hrv.
    + intros w' p Hp. eapply RI_tab; eassumption.
    + intros w' z Hz. apply Hknown. eapply pdM_tids. exact Hz.
  - exact Hnd'.
  - exact HP'.
  - intros z Hz. pose proof (Hknown z Hz) as Hc. destruct (find_task (c_tasks c) z) as [tz|] eqn:E; [|congruence]. destruct (Hpres _ _ E) as (tz' & Hz' & _). congruence.
  - exact (QR_tasks c c' (ri_qr _ _ _ _ _ HR) Eq Hpres).
  - exact Hpf.
  - intros u0 y0 v0 Hu0 Hin. destruct (Hasg u0 y0 v0 Hu0 Hin) as [(u1 & Hu1 & Ew & Hin1)|(-> & -> & Est')].
    + destruct (ri_asg _ _ _ _ _ HR u1 y0 v0 Hu1 Hin1) as (tz & Hz & Hst). rewrite Ew in Hst. exists tz. split; [|exact Hst]. apply Hkeep; [exact Hz | rewrite Hst; exact I].
    + exists t'. rewrite Hfind, tid_eqb_refl. split; [reflexivity | exact Est'].
  - exact Hnda.
  - intros id Hid. destruct (Hmn' id Hid) as [Hid0|(-> & ws & Est')].
    + destruct (ri_mnst _ _ _ _ _ HR id Hid0) as (tz & ws & Hz & Hst). exists tz, ws. split; [|exact Hst]. apply Hkeep; [exact Hz | rewrite Hst; exact I].
    + exists t', ws. rewrite Hfind, tid_eqb_refl. split; [reflexivity | exact Est'].
  - rewrite Erq. exact (ri_rq _ _ _ _ _ HR).
Qed.

(** The transitions that extend the update of one worker [w]: its three lists get [a], [p], [r]
    appended, which mention [y] only; [ext] = the items of [y] this adds for [w]. *)
Lemma RI_wu_point pf s c c' m mn y t st' w a p r (ext : list ditem) u' :
  RI pf s c m mn -> find_task (c_tasks c) y = Some t ->
  match t_state t with Waiting _ | Prefilled _ => True | _ => False end ->
  match st' with Running _ _ | RunningMN _ => False | _ => True end ->
  (forall z, find_task (c_tasks c') z = if tid_eqb z y then Some (with_state t st') else find_task (c_tasks c) z) ->
  tsorted c' -> c_rqs c' = c_rqs c -> (forall r, In r (c_redirects c') -> snd (snd r) = 0) -> c_queues c' = c_queues c ->
  mn_task_ok c (with_state t st') = true -> (forall w1 rv, st' = Assigned w1 rv -> rv = 0) ->
  (forall w' U L D, lang (view_of (t_state t) w' false) U L D = true ->
     lang (view_of st' w' false) U L (D ++ if N.eqb w' w then ext else []) = true) ->
  u' = mkWU w (wu_assigned (wu_get m w) ++ a) (wu_prefills (wu_get m w) ++ p) (wu_retracts (wu_get m w) ++ r) ->
  a = [] \/ (a = [(y, 0)] /\ st' = Assigned w 0) ->
  (forall z, In z p -> z = y) -> (forall z, In z r -> z = y) -> (pf = false -> p = []) ->
  uit y u' = uit y (wu_get m w) ++ ext ->
  RI pf s c' (wu_set m u') mn.
Proof.
  intros HR Hy Hold Hnew Hfind Hcs Erq Hred Eq Hm Hrv Hview Eu Ha Hp Hr Hpf Hext. set (u := wu_get m w) in *.
  pose proof (ri_nd _ _ _ _ _ HR) as Hnd.
  assert (Hnmn : ~ In y mn) by (apply (RI_not_mn pf s c m mn y t HR Hy); intros ws E; rewrite E in Hold; exact Hold).
  assert (Hna : ~ In y (map fst (wu_assigned u))) by (apply (get_not_asg pf s c m mn y t w HR Hy); intros w1 v1 E; rewrite E in Hold; exact Hold).
  assert (Hug : In u m \/ u = mkWU w [] [] []) by apply wu_get_in.
  assert (Hin' : forall u0, In u0 (wu_set m u') -> u0 = u' \/ In u0 m) by (intros u0; apply wu_set_in).
  assert (Hain : forall y0 v0, In (y0, v0) a -> y0 = y /\ v0 = 0 /\ st' = Assigned w v0).
  { intros y0 v0 Hin. destruct Ha as [->|[-> Est']]; [destruct Hin|]. destruct Hin as [E|[]]. injection E as <- <-. auto. }
  assert (Ew' : wu_w u' = w) by (rewrite Eu; reflexivity).
  apply (RI_point pf s c c' m mn (wu_set m u') mn y t st' (fun w' => if N.eqb w' w then ext else []) HR Hy Hold); try assumption.
  - destruct st'; try exact I; contradiction.
  - apply wu_set_nodup. exact Hnd.
  - intros w' z. rewrite (pdM_frame c c' _ mn y t (with_state t st') Hy Hfind eq_refl Hnmn), (items_wu_set c m mn u' w' z Hnd), (items_pdM c m mn w' z Hnd), Ew'.
    destruct (N.eqb w' w) eqn:E; [|destruct (tid_eqb z y); rewrite app_nil_r; reflexivity]. apply N.eqb_eq in E. subst w'. fold u.
    destruct (tid_eqb z y) eqn:Ez.
    + apply tid_eqb_eq in Ez. subst z. rewrite (mit_notin c mn w y Hnmn), !app_nil_r. exact Hext.
    + apply tid_eqb_neq in Ez. rewrite app_nil_r. f_equal. rewrite Eu. unfold uit. cbn [wu_assigned wu_prefills wu_retracts]. fold u.
      rewrite dret_app, pit_app, cit_app.
      rewrite (dret_notin z r) by (intros X; apply Ez; exact (Hr _ X)). rewrite (pit_notin z p) by (intros X; apply Ez; exact (Hp _ X)).
      rewrite (cit_notin z a) by (intros X; apply in_map_iff in X; destruct X as ([y0 v0] & <- & X); apply Ez; exact (proj1 (Hain _ _ X))).
      rewrite !app_nil_r. reflexivity.
  - intros u0 y0 v0 Hu0 Hin. destruct (Hin' _ Hu0) as [->|Hu0']; [|left; exists u0; auto]. rewrite Ew'. rewrite Eu in Hin. cbn [wu_assigned] in Hin. fold u in Hin.
    apply in_app_iff in Hin. destruct Hin as [Hin|Hin]; [left | right; exact (Hain _ _ Hin)].
    destruct Hug as [Hg|Hg]; [exists u; split; [exact Hg | split; [apply wu_get_key | exact Hin]] | rewrite Hg in Hin; destruct Hin].
  - assert (Hu : forall z, In z (wu_retracts u) \/ In z (wu_prefills u) \/ In z (map fst (wu_assigned u)) -> ment m mn z).
    { destruct Hug as [Hg|Hg]; [intros z Hz; left; exists u; auto | rewrite Hg; cbn; tauto]. }
    intros z [(u0 & Hu0 & Hz)|Hz]; [|right; right; exact Hz]. destruct (Hin' _ Hu0) as [->|Hu0']; [|right; left; exists u0; auto].
    rewrite Eu in Hz. cbn [wu_retracts wu_prefills wu_assigned] in Hz. fold u in Hz. rewrite map_app, !in_app_iff in Hz.
    destruct Hz as [[Hz|Hz]|[[Hz|Hz]|[Hz|Hz]]]; [right; apply Hu; auto | left; exact (Hr _ Hz) | right; apply Hu; auto | left; exact (Hp _ Hz) | right; apply Hu; auto |].
    left. apply in_map_iff in Hz. destruct Hz as ([y0 v0] & <- & Hz). exact (proj1 (Hain _ _ Hz)).
  - intros E u0 Hu0. destruct (Hin' _ Hu0) as [->|Hu0']; [|exact (ri_pf _ _ _ _ _ HR E u0 Hu0')]. rewrite Eu. cbn [wu_prefills]. fold u. rewrite (Hpf E), app_nil_r.
    destruct Hug as [Hg|Hg]; [exact (ri_pf _ _ _ _ _ HR E u Hg) | rewrite Hg; reflexivity].
  - intros u0 Hu0. destruct (Hin' _ Hu0) as [->|Hu0']; [|exact (ri_nda _ _ _ _ _ HR u0 Hu0')]. rewrite Eu. cbn [wu_assigned]. fold u.
    assert (Hn1 : NoDup (map fst (wu_assigned u))) by (destruct Hug as [Hg|Hg]; [exact (ri_nda _ _ _ _ _ HR u Hg) | rewrite Hg; constructor]).
    destruct Ha as [->|[-> _]]; [rewrite app_nil_r; exact Hn1 | rewrite map_app; apply NoDup_snoc; assumption].
  - intros id Hid. left. exact Hid.
Qed.

Lemma RI_assign pf s c c' m mn y t w v n r :
  RI pf s c m mn -> find_task (c_tasks c) y = Some t -> t_state t = Waiting n -> v = 0 ->
  nth_error (c_rqs c) (N.to_nat (t_rq t)) = Some r -> rq_is_mn r = false ->
  (forall z, find_task (c_tasks c') z = if tid_eqb z y then Some (with_state t (Assigned w v)) else find_task (c_tasks c) z) ->
  tsorted c' -> c_rqs c' = c_rqs c -> c_redirects c' = c_redirects c -> c_queues c' = c_queues c ->
  RI pf s c' (wu_set m (mkWU w (wu_assigned (wu_get m w) ++ [(y, v)]) (wu_prefills (wu_get m w)) (wu_retracts (wu_get m w)))) mn.
Proof.
  intros HR Hy Est -> Hr Hmn Hfind Hcs Erq Ered Eq.
  apply (RI_wu_point pf s c c' m mn y t (Assigned w 0) w [(y, 0)] [] [] [IDC (Some 0) false] _ HR Hy); try assumption.
  - rewrite Est. exact I.
  - exact I.
  - intros r0 Hr0. rewrite Ered in Hr0. exact (sp_rvr _ _ _ _ (ri_sp _ _ _ _ _ HR) _ Hr0).
  - unfold mn_task_ok. cbn [with_state t_state t_rq]. rewrite Hr, Hmn. reflexivity.
  - intros w1 rv E. injection E as _ <-. reflexivity.
  - intros w' U L D Hl. rewrite Est in Hl. cbn [view_of] in *. rewrite (N.eqb_sym w w'). destruct (N.eqb w' w); [apply LA_asg | rewrite app_nil_r]; exact Hl.
  - rewrite !app_nil_r. reflexivity.
  - right. split; reflexivity.
  - intros z [].
  - intros z [].
  - reflexivity.
  - unfold uit. cbn [wu_assigned wu_prefills wu_retracts]. rewrite cit_snoc, sel_same, !app_assoc. reflexivity.
Qed.

Lemma pdM_tasks_same c c' m mn : c_tasks c' = c_tasks c -> pdM c' m mn = pdM c m mn.
Proof.
  intros Et. unfold pdM. f_equal.
  - induction m as [|u r IH]; [reflexivity|]. cbn [flat_map]. rewrite IH. f_equal. apply umsgs_frame. intros z. rewrite Et. reflexivity.
  - apply map_ext. intros id. unfold mnmsg. rewrite Et. reflexivity.
Qed.

Lemma RI_frame pf s c c' m mn :
  RI pf s c m mn -> c_tasks c' = c_tasks c -> c_rqs c' = c_rqs c -> QR c' ->
  (forall r, In r (c_redirects c') -> snd (snd r) = 0) -> RI pf s c' m mn.
Proof.
  intros HR Et Erq Hq Hred.
  assert (Hpd : pdM c' m mn = pdM c m mn) by (apply pdM_tasks_same; exact Et).
  destruct HR as [S1 S2 S3 S4 S5 S6 S7 S8 S9 S10]. constructor; try assumption.
  - rewrite Hpd. change (st_core s c') with (mkSys c' (hq_of (st_core s c)) (s_procs (fst (st_core s c))), snd (st_core s c)).
    apply (SP_gen (fun _ => false) x0 x0 (st_core s c) no_pum (pdM c m mn) c' _ _ no_pum (pdM c m mn) S1).
    + unfold tsorted. rewrite Et. exact (sp_cs _ _ _ _ S1).
    + exact Erq.
    + exact Hred.
    + intros z tz _ Hz _. rewrite Et in Hz. exists tz. repeat split; assumption.
    + intros w' z _. split; reflexivity.
    + auto.
    + intros z tz Hz. rewrite Et in Hz. change (core_of (st_core s c)) with c. congruence.
    + intros w' p z Hp Hz. eapply (sp_seen _ _ _ _ S1); [exact Hp | right; exact Hz].
    + intros w' p Hp. split; [rewrite Erq; exact (sp_down _ _ _ _ S1 _ _ Hp) | reflexivity].
    + auto.
    + intros x tx E. discriminate.
  - destruct S3 as [Pa Pm]. split.
    + intros u y v Hu Hin. rewrite Et, Erq. eapply Pa; eassumption.
    + intros id t w0 ws Hid Hf Hst. rewrite Et in Hf. rewrite Erq. eapply Pm; eassumption.
  - intros y Hy. rewrite Et. apply S4. exact Hy.
  - intros u y v Hu Hin. rewrite Et. eapply S7; eassumption.
  - intros id Hid. rewrite Et. apply S9. exact Hid.
  - rewrite Erq. exact S10.
Qed.

Lemma set_redirect_in rs id v r : In r (set_redirect rs id v) -> r = (id, v) \/ In r rs.
Proof.
  induction rs as [|[k v0] t IH]; cbn [set_redirect In]; [intros [H|[]]; auto|].
  destruct (tid_eqb id k); cbn [In]; [intros [H|H]; auto|]. destruct (tid_ltb id k); cbn [In]; [intros [H|[H|H]]; auto|].
  intros [H|H]; [auto|]. destruct (IH H); auto.
Qed.

Lemma RI_retract s c c' m mn y t old :
  RI false s c m mn -> find_task (c_tasks c) y = Some t -> t_state t = Prefilled old ->
  (forall z, find_task (c_tasks c') z = if tid_eqb z y then Some (with_state t (Retracting old)) else find_task (c_tasks c) z) ->
  tsorted c' -> c_rqs c' = c_rqs c -> (forall r, In r (c_redirects c') -> snd (snd r) = 0) -> c_queues c' = c_queues c ->
  RI false s c' (wu_set m (mkWU old (wu_assigned (wu_get m old)) (wu_prefills (wu_get m old)) (wu_retracts (wu_get m old) ++ [y]))) mn.
Proof.
  intros HR Hy Est Hfind Hcs Erq Hred Eq.
  assert (Hna : ~ In y (map fst (wu_assigned (wu_get m old)))) by (eapply get_not_asg; [exact HR | exact Hy | intros w1 v1; rewrite Est; discriminate]).
  assert (Hpre : wu_prefills (wu_get m old) = []).
  { destruct (wu_get_in m old) as [Hg|Hg]; [exact (ri_pf _ _ _ _ _ HR eq_refl _ Hg) | rewrite Hg; reflexivity]. }
  apply (RI_wu_point false s c c' m mn y t (Retracting old) old [] [] [y] [IDRet] _ HR Hy); try assumption.
  - rewrite Est. exact I.
  - exact I.
  - pose proof (sp_mnt _ _ _ _ (ri_sp _ _ _ _ _ HR) _ _ Hy eq_refl) as M. unfold mn_task_ok in *. rewrite Est in M. exact M.
  - intros w1 rv E. discriminate.
  - intros w' U L D Hl. rewrite Est in Hl. cbn [view_of] in *. rewrite (N.eqb_sym old w') in *. destruct (N.eqb w' old); [apply LA_ret | rewrite app_nil_r]; exact Hl.
  - rewrite !app_nil_r. reflexivity.
  - left. reflexivity.
  - intros z [].
  - intros z [<-|[]]. reflexivity.
  - reflexivity.
  - (* the retract item comes first in the message: nothing else about [y] is pending for [old] *)
    unfold uit. cbn [wu_assigned wu_prefills wu_retracts]. rewrite dret_app, Hpre, (cit_notin _ _ Hna). cbn [dret pit flat_map app]. rewrite sel_same, !app_nil_r. reflexivity.
Qed.

Lemma RI_prefill s c c' m mn y t w n r :
  RI true s c m mn -> find_task (c_tasks c) y = Some t -> t_state t = Waiting n ->
  nth_error (c_rqs c) (N.to_nat (t_rq t)) = Some r -> rq_is_mn r = false ->
  (forall z, find_task (c_tasks c') z = if tid_eqb z y then Some (with_state t (Prefilled w)) else find_task (c_tasks c) z) ->
  tsorted c' -> c_rqs c' = c_rqs c -> c_redirects c' = c_redirects c -> c_queues c' = c_queues c ->
  RI true s c' (wu_set m (mkWU w (wu_assigned (wu_get m w)) (wu_prefills (wu_get m w) ++ [y]) (wu_retracts (wu_get m w)))) mn.
Proof.
  intros HR Hy Est Hr Hmn Hfind Hcs Erq Ered Eq.
  assert (Hna : ~ In y (map fst (wu_assigned (wu_get m w)))) by (eapply get_not_asg; [exact HR | exact Hy | intros w1 v1; rewrite Est; discriminate]).
  apply (RI_wu_point true s c c' m mn y t (Prefilled w) w [] [y] [] [IDC None false] _ HR Hy); try assumption.
  - rewrite Est. exact I.
  - exact I.
  - intros r0 Hr0. rewrite Ered in Hr0. exact (sp_rvr _ _ _ _ (ri_sp _ _ _ _ _ HR) _ Hr0).
  - unfold mn_task_ok. cbn [with_state t_state t_rq]. rewrite Hr, Hmn. reflexivity.
  - intros w1 rv E. discriminate.
  - intros w' U L D Hl. rewrite Est in Hl. cbn [view_of] in *. rewrite (N.eqb_sym w w'). destruct (N.eqb w' w); [apply LA_pre | rewrite app_nil_r]; exact Hl.
  - rewrite !app_nil_r. reflexivity.
  - left. reflexivity.
  - intros z [<-|[]]. reflexivity.
  - intros z [].
  - discriminate.
  - unfold uit. cbn [wu_assigned wu_prefills wu_retracts]. rewrite pit_snoc, sel_same, (cit_notin _ _ Hna), !app_nil_r, !app_assoc. reflexivity.
Qed.

Lemma RI_mn pf s c c' m mn y t n ws r :
  RI pf s c m mn -> find_task (c_tasks c) y = Some t -> t_state t = Waiting n ->
  nth_error (c_rqs c) (N.to_nat (t_rq t)) = Some r -> rq_is_mn r = true ->
  (forall z, find_task (c_tasks c') z = if tid_eqb z y then Some (with_state t (RunningMN ws)) else find_task (c_tasks c) z) ->
  tsorted c' -> c_rqs c' = c_rqs c -> c_redirects c' = c_redirects c -> c_queues c' = c_queues c ->
  RI pf s c' m (mn ++ [y]).
Proof.
  intros HR Hy Est Hr Hmn Hfind Hcs Erq Ered Eq.
  destruct (find_task_some _ _ _ Hy) as [_ Eid].
  assert (Hnmn : ~ In y mn) by (eapply RI_not_mn; [exact HR | exact Hy | intros ws0; rewrite Est; discriminate]).
  assert (Hpd : pdM c' m (mn ++ [y]) = pdM c m mn ++ [mnmsg c' y]).
  { unfold pdM. rewrite map_app, app_assoc. cbn [map]. f_equal. exact (pdM_frame c c' m mn y t _ Hy Hfind eq_refl Hnmn). }
  apply (RI_point pf s c c' m mn m (mn ++ [y]) y t (RunningMN ws) (fun w' => ditems y (msgs_for w' [mnmsg c' y])) HR Hy); try assumption.
  - rewrite Est. exact I.
  - exact I.
  - intros r0 Hr0. rewrite Ered in Hr0. exact (sp_rvr _ _ _ _ (ri_sp _ _ _ _ _ HR) _ Hr0).
  - unfold mn_task_ok. cbn [with_state t_state t_rq]. rewrite Hr. exact Hmn.
  - intros w1 rv E. discriminate.
  - intros w' U L D Hl. rewrite Est in Hl. cbn [view_of] in Hl. unfold mnmsg. rewrite Hfind, tid_eqb_refl. cbn [with_state t_state].
    destruct ws as [|w0 ws0]; [cbn [view_of]; rewrite msgs_for_cons, msgs_for_nil; destruct (N.eqb 0 w'); cbn; rewrite app_nil_r; exact Hl|].
    cbn [view_of]. rewrite msgs_for_cons, msgs_for_nil. destruct (N.eqb w0 w'); [|cbn; rewrite app_nil_r; exact Hl].
    cbn [ditems flat_map ditems_msg ctask_of ct_id ct_rv ct_nodes is_nil negb with_state t_id]. rewrite Eid, sel_same. cbn [app]. apply LA_mn. exact Hl.
  - exact (ri_nd _ _ _ _ _ HR).
  - intros w' z. rewrite Hpd, msgs_for_app, ditems_app. f_equal. destruct (tid_eqb z y) eqn:E; [apply tid_eqb_eq in E; subst z; reflexivity|].
    apply mnmsg_items. apply tid_eqb_neq. exact E.
  - intros u0 y0 v0 Hu0 Hin. left. exists u0. auto.
  - intros z [Hz|Hz]; [right; left; exact Hz|]. apply in_app_iff in Hz. destruct Hz as [Hz|[<-|[]]]; [right; right; exact Hz | left; reflexivity].
  - exact (ri_pf _ _ _ _ _ HR).
  - exact (ri_nda _ _ _ _ _ HR).
  - intros id Hid. apply in_app_iff in Hid. destruct Hid as [Hid|[<-|[]]]; [left; exact Hid | right; eauto].
Qed.

Definition RQP (c c' : core) : Prop := forall z t', find_task (c_tasks c') z = Some t' -> exists t, find_task (c_tasks c) z = Some t /\ t_rq t' = t_rq t.
Lemma RQP_refl c : RQP c c. Proof. intros z t' H. eauto. Qed.
Lemma RQP_trans a b c : RQP a b -> RQP b c -> RQP a c.
Proof. intros H1 H2 z t' H. destruct (H2 _ _ H) as (t1 & A & B). destruct (H1 _ _ A) as (t0 & C & D). exists t0. split; [exact C | congruence]. Qed.
Lemma RQP_tasks c c' : c_tasks c' = c_tasks c -> RQP c c'.
Proof. intros E z t' H. rewrite E in H. eauto. Qed.
Lemma RQP_upd c y t st' c' : find_task (c_tasks c) y = Some t ->
  (forall z, find_task (c_tasks c') z = if tid_eqb z y then Some (with_state t st') else find_task (c_tasks c) z) -> RQP c c'.
Proof.
  intros Hy Hf z t' H. rewrite Hf in H. destruct (tid_eqb z y) eqn:E; [|eauto]. apply tid_eqb_eq in E. subst z. inversion H; subst t'. exists t. auto.
Qed.

Lemma QR_same c c' : QR c -> c_queues c' = c_queues c -> c_tasks c' = c_tasks c -> QR c'.
Proof. intros HQ Eq Et. apply (QR_tasks c c' HQ Eq). intros id t H. rewrite Et. eauto. Qed.

Lemma RI_upd_worker pf s c m mn wk : RI pf s c m mn -> RI pf s (upd_worker c wk) m mn.
Proof.
  intros HR. apply (RI_frame pf s c (upd_worker c wk) m mn HR eq_refl eq_refl); [|exact (sp_rvr _ _ _ _ (ri_sp _ _ _ _ _ HR))].
  apply (QR_same c _ (ri_qr _ _ _ _ _ HR)); reflexivity.
Qed.
Lemma RI_set_queue pf s c m mn i q q' :
  RI pf s c m mn -> nth_error (c_queues c) i = Some q -> WFQ q' -> (forall x, member q' x -> member q x) ->
  RI pf s (with_queues c (set_queue (c_queues c) i q')) m mn.
Proof.
  intros HR Hq Hw Hsub. apply (RI_frame pf s c (with_queues c (set_queue (c_queues c) i q')) m mn HR eq_refl eq_refl); [|exact (sp_rvr _ _ _ _ (ri_sp _ _ _ _ _ HR))].
  exact (QR_set_queue c i q q' (ri_qr _ _ _ _ _ HR) Hq Hw Hsub).
Qed.

Lemma upd_state_find c y t st' : find_task (c_tasks c) y = Some t ->
  forall z, find_task (c_tasks (upd_task c (with_state t st'))) z = if tid_eqb z y then Some (with_state t st') else find_task (c_tasks c) z.
Proof. intros Hy z. rewrite find_upd_task. cbn [with_state t_id]. rewrite (proj2 (find_task_some _ _ _ Hy)). reflexivity. Qed.
Lemma upd_task_sorted c t : tsorted c -> tsorted (upd_task c t).
Proof. unfold tsorted. cbn [upd_task with_tasks c_tasks]. apply set_task_sorted. Qed.

Lemma map_one_RI s c m mn id w v rqres c' m' :
  RI false s c m mn -> v = 0 ->
  (forall t, find_task (c_tasks c) id = Some t -> exists r, nth_error (c_rqs c) (N.to_nat (t_rq t)) = Some r /\ rq_is_mn r = false) ->
  map_one c m id w v rqres = Ok (c', m') -> RI false s c' m' mn /\ RQP c c'.
Proof.
  intros HR Hv Hcl H. unfold map_one in H.
  apply bind_ok in H. destruct H as (wk & _ & H). apply bind_ok in H. destruct H as (wk' & _ & H).
  set (c0 := upd_worker c wk') in *.
  apply bind_ok in H. destruct H as (t & Ht & H). apply get_task_find in Ht. change (c_tasks c0) with (c_tasks c) in Ht.
  destruct (Hcl t Ht) as (r & Hr & Hmn).
  pose proof (RI_upd_worker false s c m mn wk' HR) as R0. fold c0 in R0.
  pose proof (sp_cs _ _ _ _ (ri_sp _ _ _ _ _ R0)) as Hcs0. change (core_of (st_core s c0)) with c0 in Hcs0.
  destruct (t_state t) as [n|w1 rv1|old|old|w1 rv1|ws|] eqn:Est; try discriminate.
  - (* Waiting *) inversion H; subst c' m'. clear H. split; [|exact (RQP_upd c id t _ _ Ht (upd_state_find c0 id t _ Ht))].
    apply (RI_assign false s c0 _ m mn id t w v n r R0 Ht Est Hv Hr Hmn (upd_state_find c0 id t _ Ht) (upd_task_sorted c0 _ Hcs0)); reflexivity.
  - (* Prefilled *)
    destruct (find_worker (c_workers c0) old) as [wo|]; [|discriminate]. apply bind_ok in H. destruct H as (wo' & _ & H).
    set (c1 := upd_worker c0 wo') in *.
    destruct (find_redirect (c_redirects c1) id); [discriminate|]. inversion H; subst c' m'. clear H.
    pose proof (RI_upd_worker false s c0 m mn wo' R0) as R1. fold c1 in R1.
    set (c2 := with_redirects c1 (set_redirect (c_redirects c1) id (w, v))).
    split; [|exact (RQP_upd c id t _ _ Ht (upd_state_find c2 id t _ Ht))].
    apply (RI_retract s c1 _ m mn id t old R1 Ht Est (upd_state_find c2 id t _ Ht) (upd_task_sorted c2 _ Hcs0)); try reflexivity.
    cbn [upd_task with_tasks c2 with_redirects c_redirects]. intros r0 Hr0.
    destruct (set_redirect_in _ _ _ _ Hr0) as [->|Hr1]; [cbn; exact Hv | exact (sp_rvr _ _ _ _ (ri_sp _ _ _ _ _ R1) _ Hr1)].
  - (* Retracting: only the redirection changes *)
    set (c1 := with_redirects c0 (set_redirect (c_redirects c0) id (w, v))) in *.
    assert (Hred1 : forall r0, In r0 (c_redirects c1) -> snd (snd r0) = 0).
    { cbn [c1 with_redirects c_redirects]. intros r0 Hr0. destruct (set_redirect_in _ _ _ _ Hr0) as [->|Hr1]; [cbn; exact Hv | exact (sp_rvr _ _ _ _ (ri_sp _ _ _ _ _ R0) _ Hr1)]. }
    assert (R1 : RI false s c1 m mn).
    { apply (RI_frame false s c0 c1 m mn R0 eq_refl eq_refl); [apply (QR_same c0 c1 (ri_qr _ _ _ _ _ R0)); reflexivity | exact Hred1]. }
    destruct (find_redirect (c_redirects c0) id) as [[ot vo]|].
    + apply bind_ok in H. destruct H as (wo & _ & H). apply bind_ok in H. destruct H as (rq & _ & H). apply bind_ok in H. destruct H as (wo' & _ & H).
      inversion H; subst c' m'. split; [exact (RI_upd_worker false s c1 m mn wo' R1) | apply RQP_tasks; reflexivity].
    + inversion H; subst c' m'. split; [exact R1 | apply RQP_tasks; reflexivity].
Qed.

Definition CL (c : core) (ids : list tid) : Prop :=
  forall id t, In id ids -> find_task (c_tasks c) id = Some t -> exists r, nth_error (c_rqs c) (N.to_nat (t_rq t)) = Some r /\ rq_is_mn r = false.
Lemma CL_step c c' ids : RQP c c' -> c_rqs c' = c_rqs c -> CL c ids -> CL c' ids.
Proof. intros HQ Er H id t' Hin Hf. destruct (HQ _ _ Hf) as (t & Hf0 & Et). rewrite Er, Et. eapply H; eassumption. Qed.
Lemma CL_incl c a b : incl a b -> CL c b -> CL c a.
Proof. intros Hi H id t Hin. apply H. apply Hi. exact Hin. Qed.
Lemma RI_rqs pf s c c' m mn m' mn' : RI pf s c m mn -> RI pf s c' m' mn' -> c_rqs c' = c_rqs c.
Proof. intros A B. rewrite (ri_rq _ _ _ _ _ A), (ri_rq _ _ _ _ _ B). reflexivity. Qed.

Lemma rr_pass_RI s mn v rqres counts : forall c m tasks c' m' counts' rest,
  RI false s c m mn -> v = 0 -> CL c tasks -> rr_pass c m counts tasks v rqres = Ok (c', m', counts', rest) ->
  RI false s c' m' mn /\ RQP c c' /\ incl rest tasks.
Proof.
  induction counts as [|[w n] r IH]; intros c m tasks c' m' counts' rest HR Hv Hcl H.
  - destruct tasks; cbn [rr_pass] in H; inversion H; subst; (split; [exact HR | split; [apply RQP_refl | apply incl_refl]]).
  - destruct tasks as [|id tl]; cbn [rr_pass] in H; [inversion H; subst; split; [exact HR | split; [apply RQP_refl | apply incl_refl]]|].
    destruct (N.ltb 0 n).
    + apply bind_ok in H. destruct H as ([c1 m1] & H1 & H). apply bind_ok in H. destruct H as ([[[c2 m2] r'] tl'] & H2 & H). inversion H; subst c' m' counts' rest. clear H.
      destruct (map_one_RI s c m mn id w v rqres c1 m1 HR Hv (fun t Ht => Hcl id t (or_introl eq_refl) Ht) H1) as [R1 Q1].
      destruct (IH c1 m1 tl c2 m2 r' tl' R1 Hv) as (R2 & Q2 & I2); [|exact H2|].
      * apply (CL_step c c1); [exact Q1 | exact (RI_rqs _ _ _ _ _ _ _ _ HR R1)|]. eapply CL_incl; [|exact Hcl]. intros x Hx. right. exact Hx.
      * split; [exact R2|]. split; [eapply RQP_trans; eassumption|]. intros x Hx. right. apply I2. exact Hx.
    + apply bind_ok in H. destruct H as ([[[c2 m2] r'] tl'] & H2 & H). inversion H; subst c' m' counts' rest. clear H.
      eapply IH; eassumption.
Qed.

Lemma rr_loop_RI s mn v rqres fuel : forall c m counts tasks c' m',
  RI false s c m mn -> v = 0 -> CL c tasks -> rr_loop fuel c m counts tasks v rqres = Ok (c', m') ->
  RI false s c' m' mn /\ RQP c c'.
Proof.
  induction fuel as [|k IH]; intros c m counts tasks c' m' HR Hv Hcl H; destruct tasks as [|id tl]; cbn [rr_loop] in H;
    try (inversion H; subst; split; [exact HR | apply RQP_refl]); try discriminate.
  apply bind_ok in H. destruct H as ([[[c1 m1] counts1] rest] & H1 & H).
  destruct (rr_pass_RI s mn v rqres counts c m (id :: tl) c1 m1 counts1 rest HR Hv Hcl H1) as (R1 & Q1 & I1).
  destruct (IH c1 m1 counts1 rest c' m' R1 Hv) as [R2 Q2]; [|exact H|].
  - apply (CL_step c c1); [exact Q1 | exact (RI_rqs _ _ _ _ _ _ _ _ HR R1)|]. eapply CL_incl; eassumption.
  - split; [exact R2 | eapply RQP_trans; eassumption].
Qed.

Definition sn_ok (c : core) (l : list (N * N * list (wid * N))) : Prop :=
  forall e, In e l -> snd (fst e) = 0 /\ exists r, nth_error (c_rqs c) (N.to_nat (fst (fst e))) = Some r /\ rq_is_mn r = false.

Lemma QR_member_class c i q id t : QR c -> nth_error (c_queues c) i = Some q -> member q id -> find_task (c_tasks c) id = Some t -> N.to_nat (t_rq t) = i.
Proof. intros [_ H] Hq Hm Hf. destruct (H i q id Hq Hm) as (t0 & Hf0 & E). rewrite Hf in Hf0. injection Hf0 as Et. rewrite Et. exact E. Qed.

Lemma map_sn_RI s mn sol l : forall c m c' m',
  RI false s c m mn -> sn_ok c l -> map_sn c m sol l = Ok (c', m') -> RI false s c' m' mn /\ RQP c c'.
Proof.
  induction l as [|[[rq v] counts] r IH]; intros c m c' m' HR Hok H; cbn [map_sn] in H; [inversion H; subst; split; [exact HR | apply RQP_refl]|].
  apply bind_ok in H. destruct H as (rqd & _ & H). apply bind_ok in H. destruct H as (q & Hq & H). apply bind_ok in H. destruct H as ([tasks q'] & Ht & H).
  apply bind_ok in H. destruct H as ([c2 m2] & Hrr & H).
  destruct (Hok _ (or_introl eq_refl)) as (Hv & r0 & Hr0 & Hmn0). cbn [fst snd] in Hv, Hr0.
  apply nth_queue_ok in Hq. pose proof (ri_qr _ _ _ _ _ HR) as HQ. destruct HQ as [HWF HQm].
  assert (Wq : WFQ q) by (rewrite Forall_forall in HWF; apply HWF; eapply nth_error_In; exact Hq).
  pose proof (q_take_tasks_spec _ _ _ _ _ Wq Ht) as TK.
  set (c1 := with_queues c (set_queue (c_queues c) (N.to_nat rq) q')) in *.
  assert (R1 : RI false s c1 m mn).
  { apply (RI_set_queue false s c m mn _ q q' HR Hq (tk_wf _ _ _ TK)). intros x Hx. eapply TakeQ_member; eassumption. }
  assert (Hcl : CL c1 tasks).
  { intros id t Hin Hf. change (c_tasks c1) with (c_tasks c) in Hf. change (c_rqs c1) with (c_rqs c).
    rewrite (QR_member_class c (N.to_nat rq) q id t (ri_qr _ _ _ _ _ HR) Hq (TakeQ_taken_member _ _ _ _ TK Hin) Hf). eauto. }
  destruct (rr_loop_RI s mn v (rq_res rqd) _ c1 m counts tasks c2 m2 R1 Hv Hcl Hrr) as [R2 Q2].
  destruct (IH c2 m2 c' m' R2) as [R3 Q3]; [|exact H|].
  - intros e He. destruct (Hok e (or_intror He)) as (A & r1 & B & C). split; [exact A|]. exists r1. rewrite (RI_rqs _ _ _ _ _ _ _ _ HR R2). auto.
  - split; [exact R3|]. eapply RQP_trans; [|exact Q3]. eapply RQP_trans; [apply (RQP_tasks c c1); reflexivity | exact Q2].
Qed.

Lemma insert_by_prio_perm c x l : Permutation (x :: l) (insert_by_prio c x l).
Proof.
  induction l as [|h t IH]; cbn [insert_by_prio]; [apply Permutation_refl|].
  match goal with |- context [if ?b then _ else _] => destruct b end; [apply Permutation_refl|].
  eapply Permutation_trans; [apply perm_swap | apply perm_skip; exact IH].
Qed.
Lemma sort_assigned_perm c l : Permutation l (sort_assigned c l).
Proof.
  unfold sort_assigned. assert (H : forall acc, Permutation (l ++ acc) (fold_left (fun acc x => insert_by_prio c x acc) l acc)).
  { induction l as [|x r IH]; intros acc; cbn [fold_left app]; [apply Permutation_refl|].
    eapply Permutation_trans; [|apply IH]. eapply Permutation_trans; [apply Permutation_middle|]. apply Permutation_app_head. apply insert_by_prio_perm. }
  specialize (H []). rewrite app_nil_r in H. exact H.
Qed.
Lemma cit_perm y l l' : Permutation l l' -> NoDup (map fst l) -> cit y l = cit y l'.
Proof.
  unfold cit. induction 1 as [|x l l' Hp IH|a b l|l1 l2 l3 H1 IH1 H2 IH2]; intros Hn; cbn [flat_map map] in *.
  - reflexivity.
  - inversion Hn; subst. rewrite IH by assumption. reflexivity.
  - inversion Hn as [|? ? Ha Hn']; subst. unfold sel. destruct (tid_eqb (fst b) y) eqn:E1, (tid_eqb (fst a) y) eqn:E2; try reflexivity.
    apply tid_eqb_eq in E1, E2. exfalso. apply Ha. left. congruence.
  - rewrite IH1 by exact Hn. apply IH2. eapply Permutation_NoDup; [apply Permutation_map; exact H1 | exact Hn].
Qed.

Definition sortu (c : core) (u : wupd) : wupd := mkWU (wu_w u) (sort_assigned c (wu_assigned u)) (wu_prefills u) (wu_retracts u).

Lemma wfind_map_sortu c m w : wfind (map (sortu c) m) w = option_map (sortu c) (wfind m w).
Proof. induction m as [|h t IH]; cbn [map wfind]; [reflexivity|]. cbn [sortu wu_w]. destruct (N.eqb w (wu_w h)); [reflexivity | exact IH]. Qed.

Lemma RI_sort pf s c m mn : RI pf s c m mn -> RI pf s c (map (sortu c) m) mn.
Proof.
  intros HR. pose proof (ri_nd _ _ _ _ _ HR) as Hnd.
  assert (Hk : map wu_w (map (sortu c) m) = map wu_w m) by (rewrite map_map; reflexivity).
  assert (Hnd' : NoDup (map wu_w (map (sortu c) m))) by (rewrite Hk; exact Hnd).
  assert (Hin : forall u', In u' (map (sortu c) m) -> exists u, In u m /\ u' = sortu c u) by (intros u' H; apply in_map_iff in H; destruct H as (u & E & Hu); eauto).
  assert (Hmem : forall u yv, In u m -> (In yv (sort_assigned c (wu_assigned u)) <-> In yv (wu_assigned u))).
  { intros u yv _. split; intros H; [eapply Permutation_in; [apply Permutation_sym, sort_assigned_perm | exact H] | eapply Permutation_in; [apply sort_assigned_perm | exact H]]. }
  assert (Hit : forall w' z, ditems z (msgs_for w' (pdM c (map (sortu c) m) mn)) = ditems z (msgs_for w' (pdM c m mn))).
  { intros w' z. rewrite (pdM_items c _ mn w' z Hnd'), (pdM_items c m mn w' z Hnd), wfind_map_sortu. destruct (wfind m w') as [u|] eqn:E; [|reflexivity].
    cbn [option_map]. f_equal. unfold uit. cbn [sortu wu_assigned wu_prefills wu_retracts]. f_equal. f_equal. symmetry. apply cit_perm; [apply sort_assigned_perm|].
    apply (ri_nda _ _ _ _ _ HR). eapply wfind_in; exact E. }
  assert (HP' : POK c (map (sortu c) m) mn).
  { destruct (ri_ok _ _ _ _ _ HR) as [Pa Pm]. split; [|exact Pm]. intros u' y v Hu' Hyv. destruct (Hin _ Hu') as (u & Hu & ->).
    cbn [sortu wu_assigned] in Hyv. apply (Hmem u) in Hyv; [|exact Hu]. eapply Pa; eassumption. }
  assert (Hment : forall z, ment (map (sortu c) m) mn z -> ment m mn z).
  { intros z [(u' & Hu' & Hz)|Hz]; [|right; exact Hz]. destruct (Hin _ Hu') as (u & Hu & ->). left. exists u. split; [exact Hu|].
    cbn [sortu wu_retracts wu_prefills wu_assigned] in Hz. destruct Hz as [Hz|[Hz|Hz]]; [auto | auto|]. right. right.
    apply in_map_iff in Hz. destruct Hz as (yv & E & Hyv). apply (Hmem u) in Hyv; [|exact Hu]. apply in_map_iff. eauto. }
  destruct HR as [S1 S2 S3 S4 S5 S6 S7 S8 S9 S10]. constructor; try assumption.
  - apply (SP_ext x0 (mkSys c (hq_of (st_core s c)) (s_procs (fst (st_core s c))), snd (st_core s c))); [|reflexivity|reflexivity|reflexivity].
    apply (SP_gen (fun _ => false) x0 x0 (st_core s c) no_pum (pdM c m mn) c _ _ no_pum (pdM c (map (sortu c) m) mn) S1 (sp_cs _ _ _ _ S1) eq_refl (sp_rvr _ _ _ _ S1)).
    + intros z tz _ Hz _. exists tz. repeat split; assumption.
    + intros w' z _. split; [reflexivity | apply Hit].
    + auto.
    + intros z tz Hz. change (core_of (st_core s c)) with c. congruence.
    + intros w' p z Hp [[]|Hz]. apply pdM_tids, Hment, S4 in Hz. destruct (find_task (c_tasks c) z) as [tz|] eqn:E; [|congruence]. eapply (sp_pres _ _ _ _ S1). exact E.
    + intros w' p Hp. eapply (RI_tab pf s c m mn c (map (sortu c) m) mn w' p); [constructor; assumption | exact HP' | reflexivity | exact Hp].
    + auto.
    + intros x tx E. discriminate.
  - intros z Hz. apply S4. apply Hment. exact Hz.
  - intros Hpf u' Hu'. destruct (Hin _ Hu') as (u & Hu & ->). cbn [sortu wu_prefills]. apply (S6 Hpf u Hu).
  - intros u' y v Hu' Hyv. destruct (Hin _ Hu') as (u & Hu & ->). cbn [sortu wu_assigned wu_w] in *. apply (Hmem u) in Hyv; [|exact Hu]. eapply S7; eassumption.
  - intros u' Hu'. destruct (Hin _ Hu') as (u & Hu & ->). cbn [sortu wu_assigned]. eapply Permutation_NoDup; [apply Permutation_map; apply sort_assigned_perm | apply S8; exact Hu].
Qed.

Lemma set_mn_workers_same l : forall c id first c', set_mn_workers c id l first = Ok c' ->
  c_tasks c' = c_tasks c /\ c_queues c' = c_queues c /\ c_rqs c' = c_rqs c /\ c_redirects c' = c_redirects c.
Proof.
  induction l as [|w r IH]; intros c id first c' H; cbn [set_mn_workers] in H; [inversion H; auto|].
  apply bind_ok in H. destruct H as (wk & _ & H). apply bind_ok in H. destruct H as (wk' & _ & H).
  destruct (IH _ _ _ _ H) as (A & B & C & D). auto.
Qed.

Lemma map_mn_sets_RI pf s m rq r sets : forall c mn c' mn',
  RI pf s c m mn -> nth_error (c_rqs c) rq = Some r -> rq_is_mn r = true ->
  map_mn_sets c (N.of_nat rq) mn sets = Ok (c', mn') -> RI pf s c' m mn' /\ RQP c c'.
Proof.
  induction sets as [|ws rest IH]; intros c mn c' mn' HR Hr Hmn H; cbn [map_mn_sets] in H; [inversion H; subst; split; [exact HR | apply RQP_refl]|].
  rewrite Nat2N.id in H.
  apply bind_ok in H. destruct H as (q & Hq & H). destruct (q_take_one q) as [[id q']|] eqn:Etk; [|discriminate].
  apply bind_ok in H. destruct H as (c2 & Hsm & H). apply bind_ok in H. destruct H as (t & Ht & H). apply get_task_find in Ht.
  destruct (t_state t) as [n| | | | | |] eqn:Est; try discriminate. destruct n; [|discriminate].
  apply nth_queue_ok in Hq. destruct (ri_qr _ _ _ _ _ HR) as [HWF _].
  assert (Wq : WFQ q) by (rewrite Forall_forall in HWF; apply HWF; eapply nth_error_In; exact Hq).
  pose proof (q_take_one_spec _ _ _ Wq Etk) as TK.
  set (c1 := with_queues c (set_queue (c_queues c) rq q')) in *.
  destruct (set_mn_workers_same _ _ _ _ _ Hsm) as (E1 & E2 & E3 & E4). change (c_tasks c1) with (c_tasks c) in E1. change (c_rqs c1) with (c_rqs c) in E3. change (c_redirects c1) with (c_redirects c) in E4.
  assert (Q1 : QR c1).
  { apply (QR_set_queue c rq q q' (ri_qr _ _ _ _ _ HR) Hq (tk_wf _ _ _ TK)). intros x Hx. eapply TakeQ_member; eassumption. }
  assert (R2 : RI pf s c2 m mn).
  { apply (RI_frame pf s c c2 m mn HR E1 E3); [apply (QR_same c1 c2 Q1 E2); exact E1 | rewrite E4; exact (sp_rvr _ _ _ _ (ri_sp _ _ _ _ _ HR))]. }
  rewrite E1 in Ht.
  assert (Hrq : N.to_nat (t_rq t) = rq).
  { apply (QR_member_class c rq q id t (ri_qr _ _ _ _ _ HR) Hq); [|exact Ht]. eapply TakeQ_taken_member; [exact TK | left; reflexivity]. }
  assert (Ht2 : find_task (c_tasks c2) id = Some t) by (rewrite E1; exact Ht).
  set (c3 := upd_task c2 (with_state t (RunningMN ws))) in *.
  assert (R3 : RI pf s c3 m (mn ++ [id])).
  { apply (RI_mn pf s c2 c3 m mn id t 0 ws r R2 Ht2 Est); try reflexivity.
    - rewrite E3, Hrq. exact Hr.
    - exact Hmn.
    - exact (upd_state_find c2 id t _ Ht2).
    - exact (upd_task_sorted c2 _ (sp_cs _ _ _ _ (ri_sp _ _ _ _ _ R2))). }
  destruct (IH c3 (mn ++ [id]) c' mn' R3) as [R4 Q4]; [rewrite (RI_rqs _ _ _ _ _ _ _ _ HR R3); exact Hr | exact Hmn | exact H|].
  split; [exact R4|]. eapply RQP_trans; [|exact Q4]. eapply RQP_trans; [apply (RQP_tasks c c2); exact E1|].
  exact (RQP_upd c2 id t (RunningMN ws) c3 Ht2 (upd_state_find c2 id t _ Ht2)).
Qed.

Definition mn_ok (c : core) (l : list (N * N * list (list wid))) : Prop :=
  forall e, In e l -> exists r, nth_error (c_rqs c) (N.to_nat (fst (fst e))) = Some r /\ rq_is_mn r = true.

Lemma map_mn_RI pf s m l : forall c mn c' mn', RI pf s c m mn -> mn_ok c l -> map_mn c mn l = Ok (c', mn') -> RI pf s c' m mn' /\ RQP c c'.
Proof.
  induction l as [|[[rq v] sets] rest IH]; intros c mn c' mn' HR Hok H; cbn [map_mn] in H; [inversion H; subst; split; [exact HR | apply RQP_refl]|].
  apply bind_ok in H. destruct H as ([c1 mn1] & H1 & H). destruct (Hok _ (or_introl eq_refl)) as (r & Hr & Hmn). cbn [fst] in Hr.
  rewrite <- (N2Nat.id rq) in H1. destruct (map_mn_sets_RI pf s m _ r sets c mn c1 mn1 HR Hr Hmn H1) as [R1 Q1].
  destruct (IH c1 mn1 c' mn' R1) as [R2 Q2]; [|exact H|].
  - intros e He. destruct (Hok e (or_intror He)) as (r1 & A & B). exists r1. rewrite (RI_rqs _ _ _ _ _ _ _ _ HR R1). auto.
  - split; [exact R2 | eapply RQP_trans; eassumption].
Qed.

Lemma wu_set_set m x y : wu_w x = wu_w y -> wu_set (wu_set m x) y = wu_set m y.
Proof.
  intros E. induction m as [|h t IH]; cbn [wu_set].
  - rewrite <- E, N.eqb_refl. reflexivity.
  - destruct (N.eqb (wu_w x) (wu_w h)) eqn:E1; cbn [wu_set].
    + rewrite <- E, N.eqb_refl, E1. reflexivity.
    + rewrite <- E, E1, IH. reflexivity.
Qed.
Lemma wu_set_same m w u : wfind m w = Some u -> wu_set m u = m.
Proof.
  induction m as [|h t IH]; cbn [wfind wu_set]; [discriminate|]. destruct (N.eqb w (wu_w h)) eqn:E.
  - intros H. inversion H; subst. rewrite N.eqb_refl. reflexivity.
  - intros H. pose proof (wfind_key _ _ _ H) as Ek. rewrite Ek, E. rewrite (IH H). reflexivity.
Qed.
Lemma wu_set_new m x : wfind m (wu_w x) = None -> wu_set m x = m ++ [x].
Proof.
  induction m as [|h t IH]; cbn [wfind wu_set]; [reflexivity|]. destruct (N.eqb (wu_w x) (wu_w h)); [discriminate|]. intros H. rewrite (IH H). reflexivity.
Qed.

Lemma RI_touch pf s c m mn w : RI pf s c m mn -> RI pf s c (wu_set m (wu_get m w)) mn.
Proof.
  intros HR. rewrite wu_get_wfind. destruct (wfind m w) as [u|] eqn:E; [rewrite (wu_set_same m w u E); exact HR|].
  set (e := mkWU w [] [] []). assert (Em : wu_set m e = m ++ [e]) by (apply wu_set_new; exact E). rewrite Em.
  pose proof (ri_nd _ _ _ _ _ HR) as Hnd.
  assert (Hnd' : NoDup (map wu_w (m ++ [e]))) by (rewrite <- Em; apply wu_set_nodup; exact Hnd).
  assert (Hpd : pdM c (m ++ [e]) mn = pdM c m mn) by (unfold pdM; rewrite flat_map_app; cbn [flat_map umsgs e wu_retracts wu_prefills wu_assigned map app]; rewrite app_nil_r; reflexivity).
  assert (Hin : forall u0, In u0 (m ++ [e]) -> In u0 m \/ u0 = e) by (intros u0 H; apply in_app_iff in H; destruct H as [H|[H|[]]]; auto).
  destruct HR as [S1 S2 S3 S4 S5 S6 S7 S8 S9 S10]. constructor; try assumption.
  - rewrite Hpd. exact S1.
  - destruct S3 as [Pa Pm]. split; [|exact Pm]. intros u0 y v Hu0 Hyv. destruct (Hin _ Hu0) as [H| ->]; [eapply Pa; eassumption | destruct Hyv].
  - intros z [(u0 & Hu0 & Hz)|Hz]; [|apply S4; right; exact Hz]. destruct (Hin _ Hu0) as [H| ->]; [apply S4; left; exists u0; auto | cbn in Hz; tauto].
  - intros Hpf u0 Hu0. destruct (Hin _ Hu0) as [H| ->]; [apply (S6 Hpf u0 H) | reflexivity].
  - intros u0 y v Hu0 Hyv. destruct (Hin _ Hu0) as [H| ->]; [eapply S7; eassumption | destruct Hyv].
  - intros u0 Hu0. destruct (Hin _ Hu0) as [H| ->]; [apply S8; exact H | constructor].
Qed.

Definition addpre (u : wupd) (ids : list tid) : wupd := mkWU (wu_w u) (wu_assigned u) (wu_prefills u ++ ids) (wu_retracts u).

Lemma prefill_mark_RI s mn w ids : forall c m c',
  RI true s c m mn -> CL c ids -> prefill_mark c w ids = Ok c' ->
  RI true s c' (wu_set m (addpre (wu_get m w) ids)) mn /\ RQP c c'.
Proof.
  induction ids as [|id r IH]; intros c m c' HR Hcl H; cbn [prefill_mark] in H.
  - inversion H; subst c'. split; [|apply RQP_refl]. unfold addpre. rewrite app_nil_r.
    replace (mkWU (wu_w (wu_get m w)) (wu_assigned (wu_get m w)) (wu_prefills (wu_get m w)) (wu_retracts (wu_get m w))) with (wu_get m w) by (destruct (wu_get m w); reflexivity).
    apply RI_touch. exact HR.
  - apply bind_ok in H. destruct H as (t & Ht & H). apply get_task_find in Ht.
    destruct (negb (is_waiting t)) eqn:Ew; [discriminate|]. apply negb_false_iff in Ew. unfold is_waiting in Ew. destruct (t_state t) as [n| | | | | |] eqn:Est; try discriminate.
    apply bind_ok in H. destruct H as (wk & _ & H). apply bind_ok in H. destruct H as (wk' & _ & H).
    destruct (Hcl id t (or_introl eq_refl) Ht) as (r0 & Hr0 & Hmn0).
    set (c1 := upd_task c (with_state t (Prefilled w))) in *.
    pose proof (upd_state_find c id t (Prefilled w) Ht) as Hfind1. fold c1 in Hfind1.
    assert (R1 : RI true s c1 (wu_set m (addpre (wu_get m w) [id])) mn).
    { unfold addpre. rewrite wu_get_key. apply (RI_prefill s c c1 m mn id t w n r0 HR Ht Est Hr0 Hmn0 Hfind1); try reflexivity.
      exact (upd_task_sorted c _ (sp_cs _ _ _ _ (ri_sp _ _ _ _ _ HR))). }
    set (m1 := wu_set m (addpre (wu_get m w) [id])) in *.
    pose proof (RI_upd_worker true s c1 m1 mn wk' R1) as R2.
    assert (Q1 : RQP c (upd_worker c1 wk')) by exact (RQP_upd c id t (Prefilled w) _ Ht Hfind1).
    destruct (IH (upd_worker c1 wk') m1 c' R2) as [R3 Q3]; [| exact H |].
    + apply (CL_step c _ r Q1); [exact (RI_rqs _ _ _ _ _ _ _ _ HR R2)|]. eapply CL_incl; [|exact Hcl]. intros x Hx. right. exact Hx.
    + split; [|eapply RQP_trans; eassumption].
      assert (Eg : wu_get m1 w = addpre (wu_get m w) [id]).
      { rewrite wu_get_wfind. unfold m1. rewrite wfind_set. unfold addpre at 1. cbn [wu_w]. rewrite wu_get_key, N.eqb_refl. reflexivity. }
      rewrite Eg in R3. unfold m1 in R3. rewrite wu_set_set in R3 by reflexivity.
      unfold addpre in *. cbn [wu_w wu_assigned wu_prefills wu_retracts] in R3. rewrite <- app_assoc in R3. exact R3.
Qed.

Lemma prefill_workers_RI s mn qi psize r ws : forall c m c' m',
  RI true s c m mn -> nth_error (c_rqs c) qi = Some r -> rq_is_mn r = false ->
  prefill_workers c m qi psize ws = Ok (c', m') -> RI true s c' m' mn /\ RQP c c'.
Proof.
  induction ws as [|w rest IH]; intros c m c' m' HR Hr Hmn H; cbn [prefill_workers] in H; [inversion H; subst; split; [exact HR | apply RQP_refl]|].
  apply bind_ok in H. destruct H as (q & Hq & H). apply bind_ok in H. destruct H as ([ids q'] & Htk & H). apply bind_ok in H. destruct H as (c2 & Hpm & H).
  apply nth_queue_ok in Hq. destruct (ri_qr _ _ _ _ _ HR) as [HWF _].
  assert (Wq : WFQ q) by (rewrite Forall_forall in HWF; apply HWF; eapply nth_error_In; exact Hq).
  destruct (q_take_prefill_spec _ _ _ _ Wq Htk) as (pe & MV).
  set (c1 := with_queues c (set_queue (c_queues c) qi q')) in *.
  assert (R1 : RI true s c1 m mn).
  { apply (RI_set_queue true s c m mn _ q q' HR Hq (mv_wf _ _ _ _ MV)). intros x Hx. eapply MoveQ_member; eassumption. }
  assert (Hcl : CL c1 ids).
  { intros id t Hin Hf. change (c_tasks c1) with (c_tasks c) in Hf. change (c_rqs c1) with (c_rqs c).
    assert (Hm : member q id) by (exists pe; left; exact (proj1 (mv_from _ _ _ _ MV id Hin))).
    rewrite (QR_member_class c qi q id t (ri_qr _ _ _ _ _ HR) Hq Hm Hf). eauto. }
  destruct (prefill_mark_RI s mn w ids c1 m c2 R1 Hcl Hpm) as [R2 Q2].
  assert (Em : wu_set m (mkWU w (wu_assigned (wu_get m w)) (wu_prefills (wu_get m w) ++ ids) (wu_retracts (wu_get m w))) = wu_set m (addpre (wu_get m w) ids)).
  { unfold addpre. rewrite wu_get_key. reflexivity. }
  rewrite Em in H. destruct (IH c2 _ c' m' R2) as [R3 Q3]; [rewrite (RI_rqs _ _ _ _ _ _ _ _ HR R2); exact Hr | exact Hmn | exact H|].
  split; [exact R3|]. eapply RQP_trans; [|exact Q3]. eapply RQP_trans; [apply (RQP_tasks c c1); reflexivity | exact Q2].
Qed.

Lemma prefill_queues_RI s mn worder top n : forall c m qi c' m',
  RI true s c m mn -> prefill_queues c m worder qi n top = Ok (c', m') -> RI true s c' m' mn.
Proof.
  induction n as [|k IH]; intros c m qi c' m' HR H; cbn [prefill_queues] in H; [inversion H; subst; exact HR|].
  apply bind_ok in H. destruct H as (q & _ & H). cbv zeta in H.
  destruct (q_top_priority q) as [tp|]; [|eapply IH; eassumption].
  destruct (negb (Z.eqb tp top)); [eapply IH; eassumption|].
  destruct (N.eqb (q_top_size_no_prefill q - c_reserve c) 0); [eapply IH; eassumption|].
  match type of H with (if ?b then _ else _) = _ => destruct b end.
  - match type of H with (if ?b then _ else _) = _ => destruct b end; [eapply IH; eassumption | discriminate].
  - match type of H with match filter ?f worder with _ => _ end = _ => set (elig := f) in *; destruct (filter elig worder) as [|w1 wr] eqn:Ews end; [eapply IH; eassumption|].
    match type of H with (if ?b then _ else _) = _ => destruct b end; [eapply IH; eassumption|].
    apply bind_ok in H. destruct H as ([c1 m1] & Hpw & H).
    (* the request class of this queue has a single-node assignment in this round *)
    assert (Hel : elig w1 = true) by (assert (X : In w1 (filter elig worder)) by (rewrite Ews; left; reflexivity); apply filter_In in X; apply X).
    unfold elig in Hel. destruct (find_worker (c_workers c) w1) as [wk|]; [|discriminate]. destruct (w_assign wk) as [a p f|]; [|discriminate].
    apply andb_true_iff in Hel. destruct Hel as [Hex _]. apply existsb_exists in Hex. destruct Hex as ([y v] & Hin & Hy). cbn [fst] in Hy.
    destruct (find_task (c_tasks c) y) as [t|] eqn:Hf; [|discriminate]. apply N.eqb_eq in Hy.
    assert (Hu : In (wu_get m w1) m) by (destruct (wu_get_in m w1) as [X|X]; [exact X | rewrite X in Hin; destruct Hin]).
    destruct (ri_asg _ _ _ _ _ HR _ y v Hu Hin) as (t0 & Hf0 & Est). rewrite Hf in Hf0. inversion Hf0; subst t0.
    pose proof (sp_mnt _ _ _ _ (ri_sp _ _ _ _ _ HR) _ _ Hf eq_refl) as M. unfold mn_task_ok in M. rewrite Est in M. change (core_of (st_core s c)) with c in M.
    destruct (nth_error (c_rqs c) (N.to_nat (t_rq t))) as [r|] eqn:Er; [|discriminate]. apply negb_true_iff in M.
    rewrite Hy, Nat2N.id in Er.
    destruct (prefill_workers_RI s mn qi _ r (w1 :: wr) c m c1 m1 HR Er M Hpw) as [R1 _].
    eapply IH; eassumption.
Qed.

Lemma ctasks_prefill_ctp c l cts : ctasks_prefill c l = Ok cts -> cts = map (ctp c) l.
Proof.
  revert cts. induction l as [|id r IH]; cbn [ctasks_prefill]; intros cts H; [inversion H; reflexivity|].
  apply bind_ok in H. destruct H as (t & Ht & H). apply bind_ok in H. destruct H as (rest & Hr & H). inversion H; subst.
  cbn [map]. rewrite (IH _ Hr). f_equal. unfold ctp. rewrite (get_task_find _ _ _ Ht). reflexivity.
Qed.

Lemma send_mapping_SP X pum m : forall s s' rest,
  SP X s pum (flat_map (umsgs (core_of s)) m ++ rest) -> send_mapping s m = Ok s' -> SP X s' pum rest /\ core_of s' = core_of s.
Proof.
  induction m as [|u r IH]; intros s s' rest HS H; cbn [send_mapping] in H; [inversion H; subst; split; [exact HS | reflexivity]|].
  apply bind_ok in H. destruct H as (s1 & H1 & H). apply bind_ok in H. destruct H as (cts1 & Hc1 & H). apply bind_ok in H. destruct H as (cts2 & Hc2 & H).
  apply bind_ok in H. destruct H as (s2 & H2 & H).
  cbn [flat_map] in HS. unfold umsgs at 1 in HS. rewrite <- !app_assoc in HS.
  (* the retract message *)
  assert (A1 : SP X s1 pum ((match map (ctp (core_of s)) (wu_prefills u) ++ map (ctk (core_of s)) (wu_assigned u) with [] => [] | cts => [(wu_w u, DCompute cts)] end) ++ flat_map (umsgs (core_of s)) r ++ rest) /\ core_of s1 = core_of s).
  { destruct (wu_retracts u) as [|i0 ir]; [inversion H1; subst; split; [exact HS | reflexivity]|].
    split; [eapply SP_send; [exact HS | exact H1] | eapply send_worker_core; exact H1]. }
  destruct A1 as [S1 E1]. rewrite E1 in Hc1, Hc2. rewrite (ctasks_prefill_ctp _ _ _ Hc1), (ctasks_of_ctk _ _ _ Hc2) in H2.
  assert (A2 : SP X s2 pum (flat_map (umsgs (core_of s)) r ++ rest) /\ core_of s2 = core_of s).
  { destruct (map (ctp (core_of s)) (wu_prefills u) ++ map (ctk (core_of s)) (wu_assigned u)) as [|c0 cr]; [inversion H2; subst; split; [exact S1 | exact E1]|].
    split; [eapply SP_send; [exact S1 | exact H2] | rewrite (send_worker_core _ _ _ _ H2); exact E1]. }
  destruct A2 as [S2 E2]. rewrite <- E2 in S2. destruct (IH s2 s' rest S2 H) as [S3 E3]. split; [exact S3 | congruence].
Qed.

Lemma send_mn_SP X pum mn : forall s s', SP X s pum (map (mnmsg (core_of s)) mn) -> send_mn s mn = Ok s' -> SP X s' pum [] /\ core_of s' = core_of s.
Proof.
  induction mn as [|id r IH]; intros s s' HS H; cbn [send_mn] in H; [inversion H; subst; split; [exact HS | reflexivity]|].
  apply bind_ok in H. destruct H as (t & Ht & H). apply get_task_find in Ht.
  destruct (t_state t) as [n1|w2 r2|w2|w2|w2 r2|[|w0 ws]|] eqn:Est; try discriminate.
  apply bind_ok in H. destruct H as (s1 & H1 & H).
  cbn [map] in HS. unfold mnmsg at 1 in HS. rewrite Ht, Est in HS.
  pose proof (SP_send _ _ _ _ _ _ _ HS H1) as S1. pose proof (send_worker_core _ _ _ _ H1) as E1. rewrite <- E1 in S1.
  destruct (IH s1 s' S1 H) as [S2 E2]. split; [exact S2 | congruence].
Qed.

Lemma RI_weaken s c m mn : RI false s c m mn -> RI true s c m mn.
Proof. intros [S1 S2 S3 S4 S5 S6 S7 S8 S9 S10]. constructor; try assumption. discriminate. Qed.

Theorem sched_PROTO s sol s' outs :
  PROTO s -> UH s -> QR (s_core s) -> op_ok s (OpSched sol) = true -> step s (OpSched sol) = Ok (s', outs) -> PROTO s'.
Proof.
  intros HP [Hcs Hpa] HQ Hop H. cbn [step] in H. destruct (c_flag (s_core s)); [|discriminate].
  unfold run_scheduling in H. cbv zeta in H. change (core_of (s, [])) with (s_core s) in H.
  match type of H with (if ?b then _ else _) = _ => destruct b end; [discriminate|].
  apply bind_ok in H. destruct H as ([c1 m1] & Hsn & H). apply bind_ok in H. destruct H as ([c2 mn] & Hmn & H).
  apply bind_ok in H. destruct H as ([c3 m3] & Hpf & H). apply bind_ok in H. destruct H as (s1 & Hsm & H). apply bind_ok in H. destruct H as (s2 & Hsmn & H).
  inversion H; subst s' outs. clear H.
  cbn [op_ok] in Hop. apply andb_true_iff in Hop. destruct Hop as [Hop1 Hop2]. rewrite forallb_forall in Hop1, Hop2.
  set (s0 := (s, @nil out)).
  assert (R0 : RI false s0 (s_core s) [] []).
  { constructor.
    - apply (SP_ext x0 s0); [apply SP_init; assumption | reflexivity | reflexivity | reflexivity].
    - constructor.
    - split; [intros u y v [] | intros id t w0 ws []].
    - intros y [(u & [] & _)|[]].
    - exact HQ.
    - intros _ u [].
    - intros u y v [].
    - intros u [].
    - intros id [].
    - reflexivity. }
  assert (Hsnok : sn_ok (s_core s) (sol_sn sol)).
  { intros e He. specialize (Hop1 e He). apply andb_true_iff in Hop1. destruct Hop1 as [A B]. apply N.eqb_eq in A. split; [exact A|].
    destruct (nth_error (c_rqs (s_core s)) (N.to_nat (fst (fst e)))) as [r|]; [|discriminate]. exists r. split; [reflexivity | apply negb_true_iff; exact B]. }
  destruct (map_sn_RI s0 [] sol (sol_sn sol) (s_core s) [] c1 m1 R0 Hsnok Hsn) as [R1 _].
  pose proof (RI_sort false s0 c1 m1 [] R1) as R1s.
  assert (Hmnok : mn_ok c1 (sol_mn sol)).
  { intros e He. specialize (Hop2 e He). rewrite (RI_rqs _ _ _ _ _ _ _ _ R0 R1).
    destruct (nth_error (c_rqs (s_core s)) (N.to_nat (fst (fst e)))) as [r|]; [|discriminate]. exists r. auto. }
  destruct (map_mn_RI true s0 (map (sortu c1) m1) (sol_mn sol) c1 [] c2 mn (RI_weaken _ _ _ _ R1s) Hmnok Hmn) as [R2 _].
  assert (R3 : RI true s0 c3 m3 mn).
  { destruct (queues_top_priority (c_queues c2)) as [top|]; [eapply prefill_queues_RI; [exact R2 | exact Hpf] | inversion Hpf; subst; exact R2]. }
  pose proof (ri_sp _ _ _ _ _ R3) as S3. unfold pdM in S3.
  destruct (send_mapping_SP x0 no_pum m3 (st_core s0 c3) s1 (map (mnmsg c3) mn) S3 Hsm) as [S4 E4].
  change (core_of (st_core s0 c3)) with c3 in E4. rewrite <- E4 in S4.
  destruct (send_mn_SP x0 no_pum mn s1 s2 S4 Hsmn) as [S5 E5].
  apply (SP_final (st_core s2 (with_flag (core_of s2) false))).
  apply (SP_CF x0 x0); [exact S5 | apply CF_tasks_same; auto | auto].
Qed.
