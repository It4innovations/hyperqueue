(** The joint server / worker protocol invariant, as an EXECUTABLE predicate [proto_ok : sys -> bool]
    (with [proto_why] listing the violated conjuncts).

    Idea.  Fix a connected worker process [p] (id [w]) and a task [t] that is PRESENT in the core.
    Everything the system holds about [t] "in flight to, at, or in flight from" [w] is collected in
    causal order in a WORD  U . L . D :
      U = the pending worker->server items naming [t] in [p_up p], oldest first
          (finished / failed / running / running-prefilled / reject / retract-response),
      L = the local status of [t] in the process (nothing / in the backlog / running),
      D = the pending server->worker items naming [t] in [p_down p], oldest first
          (compute with its variant / retract / cancel).
    The server's state of [t], seen from [w], is a VIEW (not here / assigned rv / prefilled /
    retracting / running / multi-node root).  The invariant says: the word belongs to the (finite,
    explicitly enumerated) LANGUAGE of the view.  The languages are closed under the four kinds of
    moves of the system: the server consumes the first U item, the server appends a D item (with a
    change of view), the worker consumes the first D item, the worker ends / starts a task.  Every
    consistency assertion of reactor.rs (sites 172-179) is "the first U item is not in the language
    of the view".

    Tasks that are not present in the core (finished, failed, cancelled) may have stale
    occurrences; the server ignores messages about unknown tasks and the worker ignores
    cancel / retract of tasks it does not have.  For them the invariant only says that the id has
    been SEEN by the job layer, so that it can never be submitted again ([occ_seen]).

    Further conjuncts: the request table of a worker plus the NewRq messages in flight is the
    table of the server (sites 300, 302), variants are 0 (site 301), the worker's three maps
    running / allocations / futures have the same sorted key set (site 303), multi-node request
    classes ask for no resource amounts and multi-node placements are made for multi-node request
    classes only (otherwise a multi-node root could reject, site 179). *)
From HQ Require Import Base.Prelude Cluster.Types Cluster.Core Cluster.Reactor Cluster.Worker Cluster.Server Cluster.Sys.
From Coq Require Import ZArith.
Local Open Scope N_scope.

Inductive uitem :=
| IFin
| IFail (k : failkind)
| IRun (prefilled : bool) (rv : N)
| IRej (rv : option N)
| IRR.                           (* the task is named in a retract response *)
Inductive ditem :=
| IDC (rv : option N) (mn : bool) (* compute entry; None = prefill form; mn = it carries a node list *)
| IDRet
| IDCan.
Inductive litem := LNone | LBack | LRun (rv : N) | LBad.

Definition sel {A} (x t : tid) (a : A) : list A := if tid_eqb x t then [a] else [].
Definition is_nil {A} (l : list A) : bool := match l with [] => true | _ => false end.

Definition uitem_of (t : tid) (u : wupdate) : list uitem :=
  match u with
  | UFinished x => sel x t IFin
  | UFailed x k => sel x t (IFail k)
  | URunning x rv => sel x t (IRun false rv)
  | URunningPrefilled x rv => sel x t (IRun true rv)
  | UReject x rv => sel x t (IRej rv)
  | UEnable _ _ => []
  end.
Definition uitems_msg (t : tid) (m : umsg) : list uitem :=
  match m with
  | UUpdates us => flat_map (uitem_of t) us
  | URetractResponse ids => flat_map (fun x => sel x t IRR) ids
  end.
Definition uitems (t : tid) (up : list umsg) : list uitem := flat_map (uitems_msg t) up.

Definition ditems_msg (t : tid) (m : dmsg) : list ditem :=
  match m with
  | DCompute ts => flat_map (fun ct => sel (ct_id ct) t (IDC (ct_rv ct) (negb (is_nil (ct_nodes ct))))) ts
  | DRetract ids => flat_map (fun x => sel x t IDRet) ids
  | DCancel ids => flat_map (fun x => sel x t IDCan) ids
  | _ => []
  end.
Definition ditems (t : tid) (down : list dmsg) : list ditem := flat_map (ditems_msg t) down.

Definition bl_count (t : tid) (b : list (N * list wtask)) : nat :=
  length (flat_map (fun kv => filter (fun x => tid_eqb (wt_id x) t) (snd kv)) b).

Definition local (p : wproc) (t : tid) : litem :=
  match run_find (p_running p) t, bl_count t (p_backlog p) with
  | None, O => LNone
  | None, S O => LBack
  | Some rv, O => LRun rv
  | _, _ => LBad
  end.

(** [VM jr]: root of a multi-node task; the server state does not change when the running message is
    consumed, but the job layer's does ([jr] = the job layer shows the task Running). *)
Inductive view := VN | VA (rv : N) | VP | VT | VR (rv : N) | VM (jr : bool).

Definition view_of (st : tstate) (w : wid) (jr : bool) : view :=
  match st with
  | Assigned w1 rv => if N.eqb w1 w then VA rv else VN
  | Prefilled w1 => if N.eqb w1 w then VP else VN
  | Retracting w1 => if N.eqb w1 w then VT else VN
  | Running w1 rv => if N.eqb w1 w then VR rv else VN
  | RunningMN (w0 :: _) => if N.eqb w0 w then VM jr else VN
  | _ => VN
  end.


(** started by the worker, the running message not yet consumed by the server *)
Definition is_started (pre : bool) (chk : N -> bool) (U : list uitem) (L : litem) : bool :=
  match U, L with
  | [IRun b rv], (LRun _ | LNone) => Bool.eqb b pre && chk rv
  | [IRun b rv; (IFin | IFail _)], LNone => Bool.eqb b pre && chk rv
  | _, _ => false
  end.
(** the running message has been consumed *)
Definition is_consumed (U : list uitem) (L : litem) : bool :=
  match U, L with
  | [], (LRun _ | LNone) => true
  | [(IFin | IFail _)], LNone => true
  | _, _ => false
  end.
Definition is_failed (U : list uitem) (L : litem) : bool :=
  match U, L with
  | [IFail _], LNone => true
  | _, _ => false
  end.
Definition is_lnone (L : litem) : bool := match L with LNone => true | _ => false end.
Definition is_lback (L : litem) : bool := match L with LBack => true | _ => false end.
Definition any_rv (_ : N) : bool := true.
Definition nil_or_ret (D : list ditem) : bool := match D with [] | [IDRet] => true | _ => false end.

Definition lang (v : view) (U : list uitem) (L : litem) (D : list ditem) : bool :=
  match v with
  | VN => is_nil U && is_lnone L && is_nil D
  | VA rv =>
      (is_nil U && is_lnone L && match D with [IDC (Some rv') false] => N.eqb rv' rv | _ => false end)
      || (is_nil D && (is_started false (N.eqb rv) U L || is_failed U L
                       || (is_lnone L && match U with [IRej (Some rv')] => N.eqb rv' rv | _ => false end)))
  | VP =>
      (is_nil U && is_lnone L && match D with [IDC None false] => true | _ => false end)
      || (is_nil U && is_lback L && is_nil D)
      || (is_nil D && (is_started true any_rv U L || is_failed U L))
  | VT =>
      (is_nil U && is_lnone L && match D with [IDC None false; IDRet] => true | _ => false end)
      || (is_nil U && is_lback L && match D with [IDRet] => true | _ => false end)
      || (nil_or_ret D && (is_started true any_rv U L || is_failed U L))
      || (is_lnone L && is_nil D && match U with [IRR] => true | _ => false end)
  | VR _ => is_consumed U L && nil_or_ret D
  | VM false =>
      (is_nil U && is_lnone L && match D with [IDC (Some rv') true] => N.eqb rv' 0 | _ => false end)
      || (is_nil D && (is_started false (N.eqb 0) U L || is_failed U L))
  | VM true => is_nil D && is_consumed U L
  end.


Definition job_running (h : hq) (t : tid) : bool :=
  match find_job (h_jobs h) (fst t) with
  | Some j => match jt_find (j_tasks j) (snd t) with Some JR => true | _ => false end
  | None => false
  end.

(** (1) every present task, at every process *)
Definition task_at_ok (h : hq) (p : wproc) (t : task) : bool :=
  lang (view_of (t_state t) (p_id p) (job_running h (t_id t)))
       (uitems (t_id t) (p_up p)) (local p (t_id t)) (ditems (t_id t) (p_down p)).
Definition words_ok (s : sys) (p : wproc) : bool := forallb (task_at_ok (s_hq s) p) (c_tasks (s_core s)).

(** (7) the job layer shows a task Running exactly when the server has consumed its running message
    (site 202): always for [Running], never for the states before; for a multi-node task the
    language of its root decides. *)
Definition jr_ok (h : hq) (t : task) : bool :=
  match t_state t with
  | Running _ _ => job_running h (t_id t)
  | RunningMN _ => true
  | _ => negb (job_running h (t_id t))
  end.

(** (8) variants are 0 in the core, too (they are sent to the workers later) *)
Definition rv_ok (c : core) : bool :=
  forallb (fun t => match t_state t with Assigned _ rv => N.eqb rv 0 | _ => true end) (c_tasks c)
  && forallb (fun r => N.eqb (snd (snd r)) 0) (c_redirects c).

(** (2) the request table: walking the down channel with the table size, every NewRq announces
    the next index (302), every compute entry with a variant names variant 0 (301) and a known
    request (300), every compute entry with a node list names a class without resource amounts
    (so that the multi-node root never rejects it, 179); the worker's table followed by the
    announced definitions is the server's. *)
Definition zero_res (r : rqdef) : bool := forallb (N.eqb 0) (rq_res r).
Definition ct_ok (rqs : list rqdef) (n : N) (ct : ctask) : bool :=
  match ct_rv ct with Some rv => N.eqb rv 0 && N.ltb (ct_rq ct) n | None => true end
  && (is_nil (ct_nodes ct)
      || match nth_error rqs (N.to_nat (ct_rq ct)) with Some r => zero_res r | None => false end).
Fixpoint down_ok (rqs : list rqdef) (n : N) (d : list dmsg) : bool :=
  match d with
  | [] => true
  | DNewRq rq _ :: r => N.eqb rq n && down_ok rqs (n + 1) r
  | DCompute ts :: r => forallb (ct_ok rqs n) ts && down_ok rqs n r
  | _ :: r => down_ok rqs n r
  end.
Definition newrq_defs (d : list dmsg) : list rqdef :=
  flat_map (fun m => match m with DNewRq _ def => [def] | _ => [] end) d.
Fixpoint rqs_eqb (a b : list rqdef) : bool :=
  match a, b with
  | [], [] => true
  | x :: a', y :: b' => rq_eqb x y && rqs_eqb a' b'
  | _, _ => false
  end.
Definition rqs_ok (c : core) (p : wproc) : bool :=
  down_ok (c_rqs c) (N.of_nat (length (p_rqs p))) (p_down p) && rqs_eqb (p_rqs p ++ newrq_defs (p_down p)) (c_rqs c).

(** (3) worker-local maps *)
Fixpoint tids_sorted (l : list tid) : bool :=
  match l with
  | a :: (b :: _) as r => tid_ltb a b && tids_sorted r
  | _ => true
  end.
Fixpoint ns_sorted (l : list N) : bool :=
  match l with
  | a :: (b :: _) as r => N.ltb a b && ns_sorted r
  | _ => true
  end.
Fixpoint tids_eqb (a b : list tid) : bool :=
  match a, b with
  | [], [] => true
  | x :: a', y :: b' => tid_eqb x y && tids_eqb a' b'
  | _, _ => false
  end.
Definition local_ok (p : wproc) : bool :=
  tids_sorted (map fst (p_running p))
  && tids_eqb (map fst (p_futures p)) (map fst (p_running p))
  && tids_eqb (map fst (p_alloc p)) (map fst (p_running p))
  && forallb (fun kv => negb (is_nil (snd kv))) (p_alloc p)
  && ns_sorted (map fst (p_backlog p)).

(** (4) every task id occurring in a process or its channels has been seen by the job layer *)
Definition seen (h : hq) (t : tid) : bool :=
  N.ltb (fst t) (h_counter h)
  && match find_job (h_jobs h) (fst t) with
     | Some j => match jt_find (j_tasks j) (snd t) with Some _ => true | None => false end
     | None => true
     end.
Definition dmsg_tids (m : dmsg) : list tid :=
  match m with DCompute ts => map ct_id ts | DRetract ids | DCancel ids => ids | _ => [] end.
Definition wupdate_tids (u : wupdate) : list tid :=
  match u with
  | UFinished t | UFailed t _ | URunning t _ | URunningPrefilled t _ | UReject t _ => [t]
  | UEnable _ _ => []
  end.
Definition umsg_tids (m : umsg) : list tid :=
  match m with UUpdates us => flat_map wupdate_tids us | URetractResponse ids => ids end.
Definition proc_tids (p : wproc) : list tid :=
  flat_map dmsg_tids (p_down p) ++ flat_map umsg_tids (p_up p)
  ++ flat_map (fun kv => map wt_id (snd kv)) (p_backlog p) ++ map fst (p_running p).
Definition occ_seen (h : hq) (p : wproc) : bool := forallb (seen h) (proc_tids p).

(** (5) multi-node request classes ask for no resource amounts;
    (6) a task placed as a multi-node task has a multi-node request class, a task placed on a single
        worker has a single-node class (sites 165, 166). *)
Definition mn_rqs_ok (c : core) : bool := forallb (fun r => negb (rq_is_mn r) || zero_res r) (c_rqs c).
Definition mn_task_ok (c : core) (t : task) : bool :=
  match t_state t with
  | RunningMN _ => match nth_error (c_rqs c) (N.to_nat (t_rq t)) with Some r => rq_is_mn r | None => false end
  | Assigned _ _ | Prefilled _ | Retracting _ | Running _ _ =>
      match nth_error (c_rqs c) (N.to_nat (t_rq t)) with Some r => negb (rq_is_mn r) | None => false end
  | _ => true
  end.

Definition proto_ok (s : sys) : bool :=
  ns_sorted (map p_id (s_procs s))
  && forallb (words_ok s) (s_procs s)
  && forallb (rqs_ok (s_core s)) (s_procs s)
  && forallb local_ok (s_procs s)
  && forallb (occ_seen (s_hq s)) (s_procs s)
  && mn_rqs_ok (s_core s)
  && forallb (mn_task_ok (s_core s)) (c_tasks (s_core s))
  && forallb (jr_ok (s_hq s)) (c_tasks (s_core s))
  && rv_ok (s_core s).

(** Diagnosis: codes of the violated conjuncts.
    10 + k : a word is not in the language of view k (0 VN, 1 VA, 2 VP, 3 VT, 4 VR, 5 VM not
    reported running, 6 VM reported running);
    2 request tables, 3 local maps, 4 unseen id, 5 multi-node class with amounts,
    6 multi-node placement of a single-node class or single-node placement of a multi-node class,
    7 job layer's Running flag inconsistent with the task state, 8 a non-zero variant in the core,
    9 the process list is not sorted by id. *)
Definition view_code (v : view) : N :=
  match v with VN => 10 | VA _ => 11 | VP => 12 | VT => 13 | VR _ => 14 | VM false => 15 | VM true => 16 end.
Definition proto_why (s : sys) : list N :=
  (if ns_sorted (map p_id (s_procs s)) then [] else [9]) ++
  flat_map (fun p => flat_map (fun t => if task_at_ok (s_hq s) p t then []
                                        else [view_code (view_of (t_state t) (p_id p) (job_running (s_hq s) (t_id t)))])
                              (c_tasks (s_core s))) (s_procs s)
  ++ (if forallb (rqs_ok (s_core s)) (s_procs s) then [] else [2])
  ++ (if forallb local_ok (s_procs s) then [] else [3])
  ++ (if forallb (occ_seen (s_hq s)) (s_procs s) then [] else [4])
  ++ (if mn_rqs_ok (s_core s) then [] else [5])
  ++ (if forallb (mn_task_ok (s_core s)) (c_tasks (s_core s)) then [] else [6])
  ++ (if forallb (jr_ok (s_hq s)) (c_tasks (s_core s)) then [] else [7])
  ++ (if rv_ok (s_core s) then [] else [8]).

(** The first violation with the worker and the task (for the model runner's report). *)
Definition proto_culprits (s : sys) : list (wid * tid * N) :=
  flat_map (fun p => flat_map (fun t => if task_at_ok (s_hq s) p t then []
                                        else [(p_id p, t_id t, view_code (view_of (t_state t) (p_id p) (job_running (s_hq s) (t_id t))))])
                              (c_tasks (s_core s))) (s_procs s).

(** * The hypothesis on the operations: what the real solver / client guarantee and the model
    leaves unconstrained (both are witnesses of the harness). *)
Definition op_ok (s : sys) (o : op) : bool :=
  match o with
  | OpSched sol =>
      forallb (fun e => N.eqb (snd (fst e)) 0
                        && match nth_error (c_rqs (s_core s)) (N.to_nat (fst (fst e))) with
                           | Some r => negb (rq_is_mn r)
                           | None => false
                           end) (sol_sn sol)
      && forallb (fun e => match nth_error (c_rqs (s_core s)) (N.to_nat (fst (fst e))) with
                           | Some r => rq_is_mn r
                           | None => false
                           end) (sol_mn sol)
  | OpSubmit _ _ _ rq _ _ _ _ => negb (rq_is_mn rq) || zero_res rq
  | OpSubmitG _ rqs _ _ => forallb (fun rq => negb (rq_is_mn rq) || zero_res rq) rqs
  | _ => true
  end.

(** * Checking a whole history: [None] = [proto_ok] after every step; otherwise the index of the
    first step after which it fails, with the codes.  A step that is not [Ok] ends the check. *)
Fixpoint check_run (i : N) (s : sys) (ops : list op) : option (N * list N) :=
  match ops with
  | [] => None
  | o :: r =>
      match step s o with
      | Ok (s1, _) => if proto_ok s1 then check_run (i + 1) s1 r else Some (i, proto_why s1)
      | _ => Some (i, [99])
      end
  end.
Fixpoint ops_ok (s : sys) (ops : list op) : bool :=
  match ops with
  | [] => true
  | o :: r => op_ok s o && match step s o with Ok (s1, _) => ops_ok s1 r | _ => true end
  end.

Definition rq1 : rqdef := mkRq 0 [1; 0; 0].
Definition sub (n : N) (prio : Z) : op := OpSubmit None [] (Some n) rq1 prio CUnl false None.

Definition h_plain : list op :=
  [OpConnect [2; 0; 0] 0; sub 1 0%Z; OpSched (mkSol [(0, 0, [(1, 1)])] [] [1] []);
   OpDDown 1 []; OpDDown 1 []; OpDUp 1; OpEnd 1 (1, 0) EndOk; OpDUp 1].
Example h_plain_ok : check_run 0 (init_sys 0 2) h_plain = None /\ ops_ok (init_sys 0 2) h_plain = true.
Proof. split; vm_compute; reflexivity. Qed.

(** prefill: six tasks, two assigned, two prefilled; one running task ends and a backlog task is
    started by the worker itself; then a higher-priority task arrives and the remaining prefilled
    task is retracted; the worker gives it back. *)
Definition h_prefill : list op :=
  [OpConnect [2; 0; 0] 0; sub 6 0%Z;
   OpSched (mkSol [(0, 0, [(1, 2)])] [] [1] []);
   OpDDown 1 []; OpDDown 1 [];                  (* NewRq, Compute (2 prefill + 2 assigned) *)
   OpDUp 1;                                     (* running x 2 *)
   OpEnd 1 (1, 0) EndOk;                        (* finished + running-prefilled *)
   sub 1 5%Z;                                   (* higher priority: the prefill set is disposed *)
   OpDUp 1;
   OpDDown 1 [0];                               (* Retract *)
   OpDUp 1;                                     (* retract response *)
   OpEnd 1 (1, 1) EndOk; OpDUp 1].
Example h_prefill_ok : check_run 0 (init_sys 0 2) h_prefill = None /\ ops_ok (init_sys 0 2) h_prefill = true.
Proof. split; vm_compute; reflexivity. Qed.

(** the same, but the worker starts the retracted task before the retract arrives *)
Definition h_retract_race : list op :=
  [OpConnect [2; 0; 0] 0; sub 6 0%Z;
   OpSched (mkSol [(0, 0, [(1, 2)])] [] [1] []);
   OpDDown 1 []; OpDDown 1 []; OpDUp 1;
   sub 1 5%Z;                                   (* both prefilled tasks become Retracting *)
   OpEnd 1 (1, 0) EndOk;                        (* the worker starts one of them *)
   OpEnd 1 (1, 1) EndFail;                      (* ... and the other one *)
   OpDDown 1 [0];                               (* Retract: nothing to give back *)
   OpDUp 1; OpDUp 1; OpDUp 1;
   OpEnd 1 (1, 2) EndOk; OpEnd 1 (1, 3) EndOk; OpDUp 1; OpDUp 1].
Example h_retract_race_ok : check_run 0 (init_sys 0 2) h_retract_race = None.
Proof. vm_compute; reflexivity. Qed.

(** redirect: a prefilled task is taken by the scheduler for another worker; and a reject *)
Definition h_redirect : list op :=
  [OpConnect [2; 0; 0] 0; sub 4 0%Z;
   OpSched (mkSol [(0, 0, [(1, 2)])] [] [1] []);      (* 2 assigned, 2 prefilled on worker 1 *)
   OpConnect [1; 0; 0] 0;
   OpSched (mkSol [(0, 0, [(2, 2)])] [] [1; 2] [(0, [(1, 2); (1, 3)])]);   (* both prefilled tasks go to worker 2 (over-booked) *)
   OpDDown 1 []; OpDDown 1 []; OpDDown 1 []; OpDDown 1 [0];   (* NewRq, Compute, NewWorker, Retract *)
   OpDUp 1; OpDUp 1;                             (* running x2; retract response -> Compute to worker 2 *)
   OpDDown 2 [];                                 (* worker 2: one starts, one is rejected *)
   OpDUp 2;
   OpSched (mkSol [(0, 0, [(2, 1)])] [] [1; 2] []);
   OpDDown 2 []; OpDUp 2;
   OpEnd 2 (1, 2) EndOk; OpDUp 2].
Example h_redirect_ok : check_run 0 (init_sys 0 2) h_redirect = None.
Proof. vm_compute; reflexivity. Qed.

(** cancel while running, loss of a worker, launch failure, time limit *)
Definition h_misc : list op :=
  [OpConnect [2; 0; 0] 0; OpConnect [2; 0; 0] 0;
   OpSubmit None [] (Some 3) rq1 0%Z (CMax 2) true None;
   OpSched (mkSol [(0, 0, [(1, 2); (2, 1)])] [] [1; 2] []);
   OpFailNext 2 (1, 1);
   OpDDown 1 []; OpDDown 1 []; OpDDown 1 []; OpDDown 2 []; OpDDown 2 [];
   OpTimer;
   OpDUp 1; OpDUp 2;
   OpLost 1 1 [(1, 0); (1, 2)] [] [(1, 0); (1, 2)];
   OpSched (mkSol [(0, 0, [(2, 2)])] [] [2] []);
   OpDDown 2 []; OpDDown 2 []; OpDUp 2;
   OpCancel 1;
   OpDDown 2 []; OpEnd 2 (1, 0) EndFollowStop; OpEnd 2 (1, 2) EndOk; OpDUp 2].
Example h_misc_ok : check_run 0 (init_sys 0 2) h_misc = None.
Proof. vm_compute; reflexivity. Qed.

Definition rqm : rqdef := mkRq 2 [0; 0; 0].
Definition h_mn : list op :=
  [OpConnect [2; 0; 0] 0; OpConnect [2; 0; 0] 0;
   OpSubmit None [] None rqm 0%Z CUnl false None;
   OpSched (mkSol [] [(0, 0, [[1; 2]])] [1; 2] []);
   OpDDown 1 []; OpDDown 1 []; OpDDown 1 []; OpDUp 1; OpEnd 1 (1, 0) EndOk; OpDUp 1].
Example h_mn_ok : check_run 0 (init_sys 0 2) h_mn = None /\ ops_ok (init_sys 0 2) h_mn = true.
Proof. split; vm_compute; reflexivity. Qed.

(** * Three panics that ARE reachable in the model when the solver's answer is unconstrained
    (all excluded by [op_ok], and by [proto_ok] one step earlier). *)

(** Site 301: the solution names variant 1 of a single-variant request; the worker indexes the
    variant list out of bounds. *)
Definition h_301 : list op :=
  [OpConnect [2; 0; 0] 0; sub 1 0%Z; OpSched (mkSol [(0, 1, [(1, 1)])] [] [1] []); OpDDown 1 []].
Example panic_301_reachable :
  exists s outs, run (init_sys 0 2) h_301 = Ok (s, outs) /\ step s (OpDDown 1 []) = Panic 301 /\ proto_ok s = false
  /\ ops_ok (init_sys 0 2) h_301 = false.
Proof.
  eexists _, _. split; [vm_compute; reflexivity|]. repeat split; vm_compute; reflexivity.
Qed.

(** Site 179: a multi-node placement of a request class WITH resource amounts on a worker that the
    server considers free while a cancelled task still holds the resources on the worker: the root
    rejects the task, and [task_reject] has no case for [RunningMN]. *)
Definition rqbad : rqdef := mkRq 1 [2; 0; 0].
Definition h_179 : list op :=
  [OpConnect [2; 0; 0] 0;
   OpSubmit None [] None (mkRq 0 [2; 0; 0]) 0%Z CUnl false None;
   OpSched (mkSol [(0, 0, [(1, 1)])] [] [1] []);
   OpDDown 1 []; OpDDown 1 []; OpDUp 1;           (* task (1,0) runs on worker 1 and holds 2 cpus *)
   OpSubmit None [] None rqbad 0%Z CUnl false None;
   OpCancel 1;                                    (* the server frees worker 1 at once *)
   OpSched (mkSol [] [(1, 0, [[1]])] [1] []);     (* multi-node placement on the "free" worker *)
   OpDDown 1 []; OpDDown 1 []; OpDDown 1 []].     (* NewRq, Cancel (stop signal only), Compute -> reject *)
Example panic_179_reachable :
  exists s outs, run (init_sys 0 2) h_179 = Ok (s, outs) /\ step s (OpDUp 1) = Panic 179 /\ proto_ok s = false
  /\ ops_ok (init_sys 0 2) h_179 = false.
Proof.
  eexists _, _. split; [vm_compute; reflexivity|]. repeat split; vm_compute; reflexivity.
Qed.

(** Site 166: a single-node placement of a multi-node request class; when the launch fails,
    [task_failed] looks at the request class and expects a multi-node placement. *)
Definition h_166 : list op :=
  [OpConnect [2; 0; 0] 0;
   OpSubmit None [] None rqm 0%Z CUnl false None;
   OpSched (mkSol [(0, 0, [(1, 1)])] [] [1] []);
   OpFailNext 1 (1, 0);
   OpDDown 1 []; OpDDown 1 []].
Example panic_166_reachable :
  exists s outs, run (init_sys 0 2) h_166 = Ok (s, outs) /\ step s (OpDUp 1) = Panic 166 /\ proto_ok s = false
  /\ ops_ok (init_sys 0 2) h_166 = false.
Proof.
  eexists _, _. split; [vm_compute; reflexivity|]. repeat split; vm_compute; reflexivity.
Qed.
