(** "No phantom task" for every history: submits (also those with fewer entries than ids),
    open / close / forget, one operation, every history.  See SilentPA1.v. *)
From HQ Require Import Base.Prelude Cluster.Types Cluster.Core Cluster.Reactor Cluster.Worker Cluster.Server Cluster.Sys Cluster.ProofsJob Cluster.ProofsMore Cluster.ProofsTerminal Cluster.ProofsStep Cluster.ProofsFinal Cluster.BijBase Cluster.BijCore Cluster.BijHq Cluster.BijSt Cluster.BijReact Cluster.BijFinal Cluster.ReactSplit Cluster.SilentPA1.
From HQ Require Import Cluster.ModelFacts.
From Coq Require Import ZArith Lia Sorting.Sorted.
Local Open Scope N_scope.

Arguments N.add : simpl never.
Arguments N.sub : simpl never.

(** The common tail of both submit handlers: the new core tasks are AMONG the new job tasks. *)
Lemma submit_tail_PA s4 jid ids tasks s' :
  PA s4 ->
  (forall x, In x (map t_id tasks) -> In x (map (fun i => (jid, i)) ids)) -> Forall new_ok tasks ->
  (do j <- hq_get_job s4 jid 222;
   do j' <- attach_ids j ids;
   do s6 <- on_new_tasks (hq_set_job s4 j') tasks;
   submit_ok_resp s6 jid) = Ok s' ->
  PA s'.
Proof.
  intros HC Hsub Hn H. apply bind_ok in H. destruct H as (j & Hj & H). apply bind_ok in H. destruct H as (j' & Ha & H).
  apply bind_ok in H. destruct H as (s6 & H6 & H).
  destruct (jt_get _ _ _ _ Hj) as [Ej Eid]. destruct (attach_ids_find _ _ _ Ha) as [I1 I2].
  destruct (on_new_tasks_grow (hq_set_job s4 j') tasks s6 (pa_s _ HC) (pa_d _ HC) Hn H6) as (G1 & G2 & G3).
  pose proof (on_new_tasks_hq _ _ _ H6) as Q6.
  assert (Hs' : K s' = K s6 /\ hq_of s' = hq_of s6).
  { unfold submit_ok_resp in H. apply bind_ok in H. destruct H as (jx & _ & H). inversion H; subst. split; reflexivity. }
  destruct Hs' as [Ks' Qs'].
  constructor.
  - eapply CS_keys; [exact Ks' | exact G1].
  - rewrite Ks'. exact G2.
  - intros x Hx. rewrite Ks' in Hx. apply G3 in Hx. change (present (K s4) x \/ In x (map t_id tasks)) in Hx.
    apply (proj2 (active_same s6 s' (jt_same _ _ Qs') x)).
    apply (proj2 (active_same (hq_set_job s4 j') s6 (jt_same _ _ Q6) x)).
    assert (Hx' : active s4 x \/ In x (map (fun i => (jid, i)) ids))
      by (destruct Hx as [Hx|Hx]; [left; apply (pa_b _ HC); exact Hx | right; apply Hsub; exact Hx]).
    clear Hx. unfold active in *. rewrite jt_set_job, I1, Eid.
    destruct (N.eqb (fst x) jid) eqn:E1.
    + apply N.eqb_eq in E1. destruct Hx' as [(l & Hl & Hact)|Hin].
      * rewrite E1, Ej in Hl. inversion Hl; subst l. eexists. split; [reflexivity|]. rewrite I2.
        destruct (n_mem (snd x) ids); [left; reflexivity | exact Hact].
      * apply in_map_iff in Hin. destruct Hin as (i & Ex & Hi). subst x. cbn.
        eexists. split; [reflexivity|]. rewrite I2. apply n_mem_In in Hi. rewrite Hi. left; reflexivity.
    + destruct Hx' as [Ha'|Hin]; [exact Ha'|].
      apply in_map_iff in Hin. destruct Hin as (i & Ex & _). subst x. cbn in E1. rewrite N.eqb_refl in E1. discriminate.
Qed.

Lemma PA_hq_only s s' : core_of s' = core_of s -> (forall x, active s' x <-> active s x) -> PA s -> PA s'.
Proof. intros E A. apply PA_frame; [unfold K; rewrite E; reflexivity | exact A]. Qed.

Lemma submit_job_PA s jid is_new n mf : fresh s -> submit_target s jid is_new -> PA s -> PA (submit_job s jid is_new n mf).
Proof.
  intros F Ht HC. unfold submit_job. destruct is_new; cbv zeta; [|eapply PA_same; [| |exact HC]; reflexivity].
  cbn in Ht. subst jid. eapply (PA_hq_only s); [reflexivity | | exact HC]. intros x.
  rewrite (new_job_active (emit (hq_with s (hq_jobs s) (hq_counter s + 1)) _) (hq_counter s) mf false).
  - apply active_same. intros id. reflexivity.
  - change (jt s (cnt_of s) = None). apply fresh_absent. exact F.
Qed.

Lemma handle_submit_array_PA s jobsel ids entries rq prio cl tlim mf s' :
  fresh s -> PA s ->
  handle_submit_array s jobsel ids entries rq prio cl tlim mf = Ok s' -> PA s'.
Proof.
  intros F HC H. destruct (handle_submit_array_spec _ _ _ _ _ _ _ _ _ _ H) as [(c & a & ->)|(jid & is_new & ids' & s4 & rqi & Ht & _ & Erq & Htail)];
    [eapply PA_same; [| |exact HC]; reflexivity|].
  pose proof (submit_job_PA s jid is_new (N.of_nat (length ids')) mf F Ht HC) as HC3.
  pose proof (get_or_create_rq_K (submit_job s jid is_new (N.of_nat (length ids')) mf) rq) as [K4 Q4]. rewrite Erq in K4, Q4. cbn [fst] in K4, Q4.
  assert (HC4 : PA s4) by (eapply PA_same; [exact K4 | exact Q4 | exact HC3]).
  eapply (submit_tail_PA s4 jid ids'); [exact HC4 | | | exact Htail].
  - intros x Hx. rewrite map_map in Hx. cbn in Hx. apply in_map_iff in Hx. destruct Hx as (i & <- & Hi).
    apply in_map_iff. exists i. split; [reflexivity|]. destruct entries as [n|]; [eapply take_n_in; exact Hi | exact Hi].
  - apply Forall_forall. intros t Hin. apply in_map_iff in Hin. destruct Hin as (i & <- & _). split; [reflexivity | intros d []].
Qed.

Lemma handle_submit_graph_PA s jobsel rqs ts mf s' :
  fresh s -> PA s -> handle_submit_graph s jobsel rqs ts mf = Ok s' -> PA s'.
Proof.
  intros F HC H. destruct (handle_submit_graph_spec _ _ _ _ _ _ H) as [(r & ->)|(jid & is_new & s4 & rqis & tasks & Ht & Erq & Hg & Htail)];
    [eapply PA_same; [| |exact HC]; reflexivity|].
  pose proof (submit_job_PA s jid is_new (N.of_nat (length ts)) mf F Ht HC) as HC3.
  destruct (fold_rqs_K _ _ _ _ _ Erq) as [K4 Q4].
  assert (HC4 : PA s4) by (eapply PA_same; [exact K4 | exact Q4 | exact HC3]).
  destruct (graph_tasks_spec _ _ _ _ Hg) as [G1 G2].
  eapply (submit_tail_PA s4 jid (map gt_id ts) tasks); [exact HC4 | rewrite G1; auto | exact G2 | exact Htail].
Qed.

Lemma handle_open_PA s mf s' : fresh s -> PA s -> handle_open s mf = Ok s' -> PA s'.
Proof.
  intros F HC H. unfold handle_open in H. inversion H; subst.
  eapply (PA_hq_only s); [reflexivity | | exact HC]. intros x.
  rewrite (active_same (hq_with s (set_job (hq_jobs s) (mkJob (hq_counter s) true [] 0 0 0 0 0 false mf)) (hq_counter s + 1))) by (intros; reflexivity).
  unfold active.
  assert (E : forall id, jt (hq_with s (set_job (hq_jobs s) (mkJob (hq_counter s) true [] 0 0 0 0 0 false mf)) (hq_counter s + 1)) id
              = if N.eqb id (hq_counter s) then Some [] else jt s id).
  { intros id. unfold jt, hq_of, hq_with, hq_jobs. cbn. rewrite find_job_set. cbn. destruct (N.eqb id (hq_counter s)); reflexivity. }
  rewrite E. destruct (N.eqb (fst x) (hq_counter s)) eqn:E1; [|reflexivity].
  apply N.eqb_eq in E1. rewrite E1. change (jt s (hq_counter s)) with (jt s (cnt_of s)). rewrite (fresh_absent _ F).
  split; [intros (l & Hl & [Ha|Ha]); inversion Hl; subst; discriminate | intros (l & Hl & _); discriminate].
Qed.

Lemma handle_close_PA s jid s' : PA s -> handle_close s jid = Ok s' -> PA s'.
Proof.
  intros HC H. unfold handle_close in H.
  destruct (find_job (hq_jobs s) jid) as [j|] eqn:Ej; [|inversion H; subst; eapply PA_same; [| |exact HC]; reflexivity].
  destruct (j_open j); [|inversion H; subst; eapply PA_same; [| |exact HC]; reflexivity].
  apply bind_ok in H. destruct H as (s1 & H1 & H). inversion H; subst.
  destruct (check_termination_jt _ _ _ H1) as [C1 J1].
  eapply (PA_hq_only s); [exact C1 | | exact HC].
  apply active_same. intros id. rewrite jt_emit, J1, jt_emit, jt_set_job. cbn [j_id j_tasks].
  destruct (N.eqb id (j_id j)) eqn:E; [|reflexivity]. apply N.eqb_eq in E. subst id.
  unfold jt, hq_of. unfold hq_jobs in Ej. rewrite (find_job_id _ _ _ Ej), Ej. reflexivity.
Qed.


Lemma handle_forget_PA s jid s' : HOK (hq_of s) -> PA s -> handle_forget s jid = Ok s' -> PA s'.
Proof.
  intros Hok HC H. unfold handle_forget in H.
  destruct (find_job (hq_jobs s) jid) as [j|] eqn:Ej; [|inversion H; subst; eapply PA_same; [| |exact HC]; reflexivity].
  pose proof (Hok _ (find_job_in _ _ _ Ej)) as Hj.
  rewrite (has_no_active_ok _ Hj) in H. cbn [bind] in H.
  destruct (negb (j_open j) && _) eqn:Eb; [|inversion H; subst; eapply PA_same; [| |exact HC]; reflexivity].
  inversion H; subst. apply andb_true_iff in Eb. destruct Eb as [_ Eb]. apply andb_true_iff in Eb. destruct Eb as [Er Ew].
  apply N.eqb_eq in Er, Ew.
  eapply (PA_hq_only s); [reflexivity | | exact HC]. intros x.
  rewrite (active_same (hq_with s (del_job (hq_jobs s) jid) (hq_counter s))) by (intros; reflexivity).
  unfold active.
  assert (E : forall id, jt (hq_with s (del_job (hq_jobs s) jid) (hq_counter s)) id = if N.eqb id jid then None else jt s id).
  { intros id. unfold jt, hq_of, hq_with, hq_jobs. cbn. destruct (N.eqb id jid) eqn:E.
    - apply N.eqb_eq in E. subst id. rewrite find_job_del_same. reflexivity.
    - apply N.eqb_neq in E. rewrite find_job_del by exact E. reflexivity. }
  rewrite E. destruct (N.eqb (fst x) jid) eqn:E1; [|reflexivity].
  apply N.eqb_eq in E1. split; [intros (l & Hl & _); discriminate|].
  intros (l & Hl & Ha). exfalso. unfold jt, hq_of in Hl. unfold hq_jobs in Ej. rewrite E1, Ej in Hl. inversion Hl; subst l.
  destruct Ha as [Ha|Ha]; [exact (cnt_zero_find _ _ _ Ew Ha) | exact (cnt_zero_find _ _ _ Er Ha)].
Qed.

Theorem step_PA s o s' outs :
  HOK (s_hq s) -> fresh (s, []) -> PA (s, []) -> step s o = Ok (s', outs) -> PA (s', outs).
Proof.
  intros Hok F HC H.
  refine (step_walk (fun a b : st => HOK (hq_of a) -> fresh a -> PA a -> PA b) (fun _ => True)
            _ _ _ _ _ _ _ _ _ _ _ _ _ _ _ _ s o s' outs I H Hok F HC); clear.
  - intros a rs g b _ H _ _ P. eapply PA_same; [| eapply on_new_worker_same; exact H | exact P].
    unfold on_new_worker in H. inversion H; subst. reflexivity.
  - intros a w reason ao po to pw b _ _ H Hok _ P. eapply on_remove_worker_PA; [exact Hok | exact P | exact H].
  - intros a o c x _ _ _ P. eapply PA_same; [| |exact P]; reflexivity.
  - intros a job ids entries rq prio cl tlim mf b _ H _ F P. eapply handle_submit_array_PA; eassumption.
  - intros a job rqs ts mf b _ H _ F P. eapply handle_submit_graph_PA; eassumption.
  - intros a mf b _ H _ F P. eapply handle_open_PA; eassumption.
  - intros a j b _ H _ _ P. eapply handle_close_PA; eassumption.
  - intros a j b _ H Hok _ P. eapply handle_cancel_PA; [exact Hok | exact P | exact H].
  - intros a j b _ H Hok _ P. eapply handle_forget_PA; [exact Hok | exact P | exact H].
  - intros a w p m rest b _ _ _ H Hok _ P.
    assert (P1 : PA (with_procs a (set_proc (s_procs a) (wp_up p rest)), [OUp w m])) by (eapply PA_same; [| |exact P]; reflexivity).
    destruct m; [eapply on_task_update_PA; [|exact P1 | exact H]; exact Hok|].
    eapply PA_same; [eapply on_retract_response_K; [exact (pa_s _ P1) | exact H] | eapply on_retract_response_same; exact H | exact P1].
  - intros a sol b _ _ H _ _ P.
    eapply PA_same; [eapply run_scheduling_K; [exact (pa_s _ P) | exact H] | eapply run_scheduling_same; exact H | exact P].
  - intros a lj _ _ _ _ P. eapply PA_same; [| |exact P]; reflexivity.
  - intros a w order p m rest p' ls _ _ _ _ _ _ P. eapply PA_same; [| |exact P]; reflexivity.
  - intros a w t how p p' ls _ _ _ _ _ P. eapply PA_same; [| |exact P]; reflexivity.
  - intros a w t p _ _ _ _ P. eapply PA_same; [| |exact P]; reflexivity.
  - intros a _ _ _ P. eapply PA_same; [| |exact P]; reflexivity.
Qed.

Lemma PA_outs s o1 o2 : PA (s, o1) -> PA (s, o2).
Proof. intros [A B C]. constructor; [exact A | exact B | exact C]. Qed.

Theorem run_PA ops : forall s s' outs,
  HOK (s_hq s) -> fresh (s, []) -> PA (s, []) -> run s ops = Ok (s', outs) -> PA (s', outs).
Proof.
  induction ops as [|o r IH]; cbn [run]; intros s s' outs Hok F HC H; [inversion H; subst; exact HC|].
  apply bind_ok in H. destruct H as ([s1 o1] & H1 & H). apply bind_ok in H. destruct H as ([s2 o2] & H2 & H). inversion H; subst.
  pose proof (step_PA _ _ _ _ Hok F HC H1) as HC1.
  pose proof (step_hq_ok _ _ _ _ Hok H1) as Hok1.
  pose proof (G_step _ _ _ _ F H1) as G1.
  assert (F1 : fresh (s1, [])) by (apply (fresh_outs s1 o1); apply (g_fresh _ _ G1); exact F).
  eapply PA_outs. eapply IH; [exact Hok1 | exact F1 | eapply PA_outs; exact HC1 | exact H2].
Qed.


(** "No phantom task", for EVERY history of the system model (no hypothesis): a task the core
    knows is shown as waiting or running by the job layer. *)
Theorem no_phantom ops reserve maxfill s outs :
  run (init_sys reserve maxfill) ops = Ok (s, outs) ->
  forall t, In t (map t_id (c_tasks (s_core s))) ->
            exists j, find_job (h_jobs (s_hq s)) (fst t) = Some j /\
                      (jt_find (j_tasks j) (snd t) = Some JW \/ jt_find (j_tasks j) (snd t) = Some JR).
Proof.
  intros H t Ht.
  assert (HC0 : PA (init_sys reserve maxfill, [])) by (constructor; [constructor | intros id cs x [] | intros x []]).
  assert (Hok0 : HOK (s_hq (init_sys reserve maxfill))) by (intros j []).
  assert (F0 : fresh (init_sys reserve maxfill, [])) by (intros j []).
  pose proof (run_PA _ _ _ _ Hok0 F0 HC0 H) as HC.
  assert (Hp : present (K (s, outs)) t) by (apply present_ids; exact Ht).
  destruct (pa_b _ HC t Hp) as (l & Hl & Ha). unfold jt, hq_of in Hl. cbn [fst] in Hl.
  destruct (find_job (h_jobs (s_hq s)) (fst t)) as [j|]; [|discriminate]. inversion Hl; subst l. exists j. split; [reflexivity | exact Ha].
Qed.

(** The other direction really needs [op_wf]: a submit with two ids and one entry leaves an
    orphan job task (finding F26). *)
Example orphan_without_op_wf : exists s outs,
  handle_submit_array (init_sys 0 2, []) None [0; 1] (Some 1) (mkRq 0 [10000; 0; 0]) 0%Z (CMax 3) false None = Ok (s, outs)
  /\ map t_id (c_tasks (s_core s)) = [(1, 0)] /\ map j_tasks (h_jobs (s_hq s)) = [[(0, JW); (1, JW)]].
Proof. do 2 eexists. split; [vm_compute; reflexivity|]. split; vm_compute; reflexivity. Qed.

Print Assumptions no_phantom.
