(** Protocol invariant, part 1: the languages of [NoPanicU0.lang] are closed under the moves of the
    system (pure lemmas about words), the Prop form [PROTO] of [proto_ok], and the algebra of
    words / process lists. *)
From HQ Require Import Base.Prelude Cluster.Types Cluster.Core Cluster.Reactor Cluster.Worker Cluster.Server Cluster.Sys Cluster.NoPanicU0.
From HQ Require Import Cluster.ModelFacts.
From Coq Require Import ZArith Lia Sorting.Sorted.
Local Open Scope N_scope.

Ltac lang_unf := unfold lang, is_started, is_consumed, is_failed, is_nil, is_lnone, is_lback, nil_or_ret, any_rv in *.
Ltac lang_inv H :=
  repeat (match type of H with
          | context [match ?x with _ => _ end] => is_var x; destruct x
          end; cbn in H; try discriminate H).
Ltac bsimp H := repeat rewrite ?andb_true_iff, ?orb_true_iff, ?N.eqb_eq, ?Bool.eqb_true_iff in H.
Ltac lang_fin := cbn; rewrite ?N.eqb_refl; intuition (subst; cbn; rewrite ?N.eqb_refl; auto; try discriminate; try congruence).
Ltac lang_auto H := lang_unf; lang_inv H; bsimp H; try solve [lang_fin].

Lemma is_started_run pre chk b rv U L :
  is_started pre chk (IRun b rv :: U) L = Bool.eqb b pre && chk rv && is_consumed U L.
Proof. destruct U as [|[] [|]], L; cbn; rewrite ?andb_true_r, ?andb_false_r; reflexivity. Qed.

Lemma LS_run v b rv U L D : lang v (IRun b rv :: U) L D = true ->
  ((v = VA rv /\ b = false) \/ (v = VP /\ b = true) \/ (v = VT /\ b = true) \/ (v = VM false /\ rv = 0 /\ b = false))
  /\ lang (match v with VM _ => VM true | _ => VR rv end) U L D = true.
Proof.
  (* in each view only the "started" disjunct can begin with a running message *)
  intros H. unfold lang in H |- *.
  destruct v as [|rv0| | |rv0|[|]]; rewrite ?is_started_run in H; cbn [is_nil is_failed is_consumed andb orb] in H;
    rewrite ?andb_false_r, ?orb_false_r in H; try discriminate H; bsimp H.
  - destruct H as (HD & (-> & ->) & ->). destruct D; [|discriminate HD]. split; [left; split; reflexivity | reflexivity].
  - destruct H as (HD & (-> & _) & ->). destruct D; [|discriminate HD]. split; [right; left; split; reflexivity | reflexivity].
  - destruct H as (-> & (-> & _) & ->). split; [right; right; left; split; reflexivity | reflexivity].
  - destruct H as (-> & (-> & <-) & ->). split; [right; right; right; repeat split | reflexivity].
Qed.

Lemma LS_fin v U L D : lang v (IFin :: U) L D = true -> (exists rv, v = VR rv) \/ v = VM true.
Proof. intros H. lang_auto H; eauto. Qed.

Lemma LS_fail v k U L D : lang v (IFail k :: U) L D = true -> v <> VN.
Proof. intros H. lang_auto H. Qed.

Lemma LS_rej v r U L D : lang v (IRej r :: U) L D = true ->
  exists rv, v = VA rv /\ r = Some rv /\ lang VN U L D = true.
Proof. intros H. lang_auto H. all: eexists; repeat split; subst; reflexivity. Qed.

Lemma LS_rr v U L D : lang v (IRR :: U) L D = true -> v = VT /\ lang VN U L D = true.
Proof. intros H. lang_auto H. Qed.

Lemma L_VN U L D : lang VN U L D = true -> U = [] /\ L = LNone /\ D = [].
Proof. intros H. lang_auto H. Qed.
Lemma L_VN_nil : lang VN [] LNone [] = true.
Proof. reflexivity. Qed.

Lemma LA_ret U L D : lang VP U L D = true -> lang VT U L (D ++ [IDRet]) = true.
Proof.
  (* [D] is empty or the prefill entry; the disjuncts of [VP] are those of [VT] with the retract appended *)
  intros H. unfold lang in *.
  destruct D as [|[[rv'|] [|]| |] [|d2 D2]]; cbn [is_nil nil_or_ret app] in *; rewrite ?andb_false_r in *; cbn [andb orb] in *; try discriminate H.
  all: rewrite ?orb_false_r in *; exact H.
Qed.
Lemma LA_asg rv U L D : lang VN U L D = true -> lang (VA rv) U L (D ++ [IDC (Some rv) false]) = true.
Proof. intros H. destruct (L_VN _ _ _ H) as (-> & -> & ->). cbn. rewrite N.eqb_refl. reflexivity. Qed.
Lemma LA_pre U L D : lang VN U L D = true -> lang VP U L (D ++ [IDC None false]) = true.
Proof. intros H. destruct (L_VN _ _ _ H) as (-> & -> & ->). reflexivity. Qed.
Lemma LA_mn U L D : lang VN U L D = true -> lang (VM false) U L (D ++ [IDC (Some 0) true]) = true.
Proof. intros H. destruct (L_VN _ _ _ H) as (-> & -> & ->). reflexivity. Qed.

Lemma word_idle U L : L = LBack \/ L = LBad ->
  (forall pre chk, is_started pre chk U L = false) /\ is_failed U L = false /\ is_consumed U L = false.
Proof.
  intros HL. assert (Hc : forall U0, is_consumed U0 L = false) by (intros U0; destruct HL as [->| ->]; destruct U0 as [|[] [|]]; reflexivity).
  split; [|split; [destruct HL as [->| ->]; destruct U as [|[] [|]]; reflexivity | apply Hc]].
  intros pre chk. destruct U as [|[] U]; try reflexivity. rewrite is_started_run, Hc. apply andb_false_r.
Qed.
Lemma lang_dhead v U L d D : lang v U L (d :: D) = true ->
  match d with
  | IDC (Some rv) mn => U = [] /\ L = LNone /\ D = [] /\ ((v = VA rv /\ mn = false) \/ (v = VM false /\ rv = 0 /\ mn = true))
  | IDC None mn => U = [] /\ L = LNone /\ mn = false /\ ((v = VP /\ D = []) \/ (v = VT /\ D = [IDRet]))
  | IDRet => D = [] /\ ((v = VT /\ ((U = [] /\ L = LBack) \/ is_started true any_rv U L || is_failed U L = true))
                        \/ ((exists r, v = VR r) /\ is_consumed U L = true))
  | IDCan => False
  end.
Proof.
  intros H. unfold lang in H.
  destruct d as [[rv|] mn| |]; cbn [is_nil nil_or_ret] in H;
    (destruct v as [|r| | |r|[|]]; rewrite ?andb_false_r in H; cbn [andb orb] in H; try discriminate H).
  1-4: destruct U; cbn in H; try discriminate H; destruct L; cbn in H; try discriminate H; destruct mn; try discriminate H;
    destruct D as [|[] [|]]; try discriminate H; rewrite ?orb_false_r in H; try apply N.eqb_eq in H; subst; repeat split; auto.
  all: destruct D; [|rewrite ?andb_false_r in H; discriminate H]; split; [reflexivity|].
  - left. split; [reflexivity|]. rewrite orb_false_r in H. apply orb_true_iff in H. destruct H as [H|H]; [left | right; exact H].
    apply andb_true_iff in H. destruct H as [H _]. apply andb_true_iff in H. destruct H as [HU HL].
    destruct U; [|discriminate HU]. destruct L; try discriminate HL. split; reflexivity.
  - right. split; [eauto|]. rewrite andb_true_r in H. exact H.
Qed.

Lemma LW_dc v rv mn U L D : lang v U L (IDC (Some rv) mn :: D) = true ->
  L = LNone
  /\ lang v (U ++ [IRun false rv]) (LRun rv) D = true
  /\ (forall k, lang v (U ++ [IFail k]) LNone D = true)
  /\ ((mn = true /\ v = VM false) \/ (mn = false /\ lang v (U ++ [IRej (Some rv)]) LNone D = true)).
Proof.
  intros H. destruct (lang_dhead _ _ _ _ _ H) as (-> & -> & -> & [(-> & ->)|(-> & -> & ->)]); cbn; rewrite ?N.eqb_refl; repeat split; auto.
Qed.
Lemma LW_dc_pre v mn U L D : lang v U L (IDC None mn :: D) = true -> L = LNone /\ lang v U LBack D = true.
Proof. intros H. destruct (lang_dhead _ _ _ _ _ H) as (-> & -> & -> & [(-> & ->)|(-> & ->)]); split; reflexivity. Qed.
Lemma LW_ret_back v U D : lang v U LBack (IDRet :: D) = true -> lang v (U ++ [IRR]) LNone D = true.
Proof.
  intros H. destruct (lang_dhead _ _ _ _ _ H) as (-> & [(-> & [(-> & _)|E])|(_ & E)]); [reflexivity | exfalso..].
  - destruct (word_idle U LBack (or_introl eq_refl)) as (Es & Ef & _). rewrite Es, Ef in E. discriminate E.
  - destruct (word_idle U LBack (or_introl eq_refl)) as (_ & _ & Ec). rewrite Ec in E. discriminate E.
Qed.
Lemma LW_ret_other v U L D : lang v U L (IDRet :: D) = true -> L <> LBack -> lang v U L D = true.
Proof.
  intros H Hn. destruct (lang_dhead _ _ _ _ _ H) as (-> & [(-> & [(_ & E)|E])|((r & ->) & E)]); [destruct (Hn E) | |]; unfold lang; rewrite E.
  - cbn [nil_or_ret andb]. rewrite orb_true_r. reflexivity.
  - reflexivity.
Qed.
Lemma LW_ret_last v U L D : lang v U L (IDRet :: D) = true -> D = [].
Proof. intros H. exact (proj1 (lang_dhead _ _ _ _ _ H)). Qed.
Lemma LW_can v U L D : lang v U L (IDCan :: D) = true -> False.
Proof. exact (lang_dhead v U L IDCan D). Qed.

Lemma is_failed_run U rv : is_failed U (LRun rv) = false.
Proof. destruct U as [|[] [|]]; reflexivity. Qed.
Lemma consumed_end U rv : is_consumed U (LRun rv) = true ->
  is_consumed U LNone = true /\ is_consumed (U ++ [IFin]) LNone = true /\ forall k, is_consumed (U ++ [IFail k]) LNone = true.
Proof. destruct U as [|[] [|]]; cbn; try discriminate. intros _. repeat split. Qed.
Lemma started_end pre chk U rv : is_started pre chk U (LRun rv) = true ->
  is_started pre chk U LNone = true /\ is_started pre chk (U ++ [IFin]) LNone = true /\ forall k, is_started pre chk (U ++ [IFail k]) LNone = true.
Proof.
  destruct U as [|[] U]; try discriminate. cbn [app]. rewrite !is_started_run. intros H. apply andb_true_iff in H. destruct H as [H1 H2].
  destruct (consumed_end _ _ H2) as (C1 & C2 & C3). rewrite H1, C1, C2. repeat split. intros k. rewrite is_started_run, H1, (C3 k). reflexivity.
Qed.
Lemma LW_end v U rv D : lang v U (LRun rv) D = true ->
  lang v U LNone D = true /\ lang v (U ++ [IFin]) LNone D = true /\ forall k, lang v (U ++ [IFail k]) LNone D = true.
Proof.
  intros H. unfold lang in *.
  destruct v as [|r| | |r|[|]]; cbn [is_lnone is_lback andb] in H; rewrite ?is_failed_run, ?andb_false_r, ?orb_false_r in H; cbn [orb] in H;
    try discriminate H; apply andb_true_iff in H; destruct H as [H1 H2].
  1-3, 6: destruct (started_end _ _ _ _ H2) as (S1 & S2 & S3); rewrite H1, S1, S2;
    (split; [|split; [|intros k; rewrite (S3 k)]]); cbn [andb orb]; rewrite ?orb_true_r; reflexivity.
  - destruct (consumed_end _ _ H1) as (C1 & C2 & C3). rewrite H2, C1, C2. split; [|split; [|intros k; rewrite (C3 k)]]; reflexivity.
  - destruct (consumed_end _ _ H2) as (C1 & C2 & C3). rewrite H1, C1, C2. split; [|split; [|intros k; rewrite (C3 k)]]; reflexivity.
Qed.
Lemma LW_pstart v U D : lang v U LBack D = true ->
  (forall rv, lang v (U ++ [IRun true rv]) (LRun rv) D = true) /\ forall k, lang v (U ++ [IFail k]) LNone D = true.
Proof.
  (* only the [LBack] disjuncts of [VP] and [VT] remain, with an empty word *)
  intros H. unfold lang in *. destruct (word_idle U LBack (or_introl eq_refl)) as (Es & Ef & Ec).
  destruct v as [|r| | |r|[|]]; cbn [is_lnone is_lback andb] in H; rewrite ?Es, ?Ef, ?Ec, ?andb_false_r in H; cbn [andb orb] in H; try discriminate H.
  all: destruct U; cbn in H; try discriminate H; destruct D as [|[] [|]]; try discriminate H; split; intros; reflexivity.
Qed.
Lemma LW_bad v U D : lang v U LBad D = false.
Proof.
  unfold lang. destruct (word_idle U LBad (or_intror eq_refl)) as (Es & Ef & Ec).
  destruct v as [|r| | |r|[|]]; cbn [is_lnone is_lback]; rewrite ?Es, ?Ef, ?Ec, ?andb_false_r; reflexivity.
Qed.

Definition tlt (a b : tid) : Prop := tid_ltb a b = true.

Lemma tids_sorted_iff l : tids_sorted l = true <-> StronglySorted tlt l.
Proof.
  induction l as [|a [|b r] IH]; cbn [tids_sorted].
  - split; [constructor | reflexivity].
  - split; [intros _; constructor; constructor | reflexivity].
  - rewrite andb_true_iff, IH. split.
    + intros [Hab Hs]. constructor; [exact Hs|]. inversion Hs as [|? ? Hs' Hall]; subst.
      constructor; [exact Hab|]. rewrite Forall_forall in *. intros y Hy. eapply tlt_trans; [exact Hab | apply Hall; exact Hy].
    + intros Hs. inversion Hs as [|? ? Hs' Hall]; subst. split; [inversion Hall; assumption | exact Hs'].
Qed.
Lemma ns_sorted_iff l : ns_sorted l = true <-> StronglySorted N.lt l.
Proof.
  induction l as [|a [|b r] IH]; cbn [ns_sorted].
  - split; [constructor | reflexivity].
  - split; [intros _; constructor; constructor | reflexivity].
  - rewrite andb_true_iff, IH, N.ltb_lt. split.
    + intros [Hab Hs]. constructor; [exact Hs|]. inversion Hs as [|? ? Hs' Hall]; subst.
      constructor; [exact Hab|]. rewrite Forall_forall in *. intros y Hy. specialize (Hall _ Hy). lia.
    + intros Hs. inversion Hs as [|? ? Hs' Hall]; subst. split; [inversion Hall; assumption | exact Hs'].
Qed.
Lemma tids_eqb_eq a : forall b, tids_eqb a b = true <-> a = b.
Proof.
  induction a as [|x a IH]; intros [|y b]; cbn [tids_eqb]; try (split; [discriminate | congruence]); [tauto|].
  rewrite andb_true_iff, tid_eqb_eq, IH. split; [intros [-> ->]; reflexivity | intros H; inversion H; auto].
Qed.

Lemma uitems_app x a b : uitems x (a ++ b) = uitems x a ++ uitems x b.
Proof. unfold uitems. apply flat_map_app. Qed.
Lemma ditems_app x a b : ditems x (a ++ b) = ditems x a ++ ditems x b.
Proof. unfold ditems. apply flat_map_app. Qed.
Lemma uitems_cons x m r : uitems x (m :: r) = uitems_msg x m ++ uitems x r.
Proof. reflexivity. Qed.
Lemma ditems_cons x m r : ditems x (m :: r) = ditems_msg x m ++ ditems x r.
Proof. reflexivity. Qed.
Lemma sel_same {A} x (a : A) : sel x x a = [a].
Proof. unfold sel. rewrite tid_eqb_refl. reflexivity. Qed.
Lemma sel_other {A} x y (a : A) : x <> y -> sel x y a = [].
Proof. unfold sel. intros H. apply tid_eqb_neq in H. rewrite H. reflexivity. Qed.

Definition psorted (ps : list wproc) : Prop := StronglySorted N.lt (map p_id ps).

Lemma set_proc_ids ps x y : In y (map p_id (set_proc ps x)) -> y = p_id x \/ In y (map p_id ps).
Proof.
  induction ps as [|h r IH]; cbn [set_proc map In]; [intros [H|[]]; auto|].
  destruct (N.eqb (p_id x) (p_id h)); cbn [map In]; [intros [H|H]; auto|].
  destruct (N.ltb (p_id x) (p_id h)); cbn [map In]; [intros [H|[H|H]]; auto|].
  intros [H|H]; [auto|]. destruct (IH H); auto.
Qed.

Lemma set_proc_sorted ps x : psorted ps -> psorted (set_proc ps x).
Proof.
  unfold psorted. induction ps as [|h r IH]; cbn [set_proc map]; intros Hs; [constructor; constructor|].
  inversion Hs as [|? ? Hs' Hall]; subst.
  destruct (N.eqb (p_id x) (p_id h)) eqn:E1.
  - apply N.eqb_eq in E1. cbn [map]. rewrite E1. constructor; assumption.
  - destruct (N.ltb (p_id x) (p_id h)) eqn:E2; cbn [map].
    + apply N.ltb_lt in E2. constructor; [exact Hs|]. constructor; [exact E2|].
      rewrite Forall_forall in *. intros y Hy. specialize (Hall _ Hy). lia.
    + constructor; [apply IH; exact Hs'|]. rewrite Forall_forall in *. intros y Hy.
      destruct (set_proc_ids _ _ _ Hy) as [->|Hy']; [|apply Hall; exact Hy'].
      apply N.eqb_neq in E1. apply N.ltb_ge in E2. lia.
Qed.

Lemma find_proc_none ps w : ~ In w (map p_id ps) -> find_proc ps w = None.
Proof.
  induction ps as [|h r IH]; cbn [find_proc map In]; [reflexivity|]. intros Hn.
  destruct (N.eqb w (p_id h)) eqn:E; [apply N.eqb_eq in E; exfalso; apply Hn; left; auto|].
  apply IH. intros X. apply Hn. right. exact X.
Qed.

Lemma in_find_proc ps p : psorted ps -> In p ps -> find_proc ps (p_id p) = Some p.
Proof.
  unfold psorted. induction ps as [|h r IH]; cbn [find_proc map]; intros Hs Hin; [destruct Hin|].
  inversion Hs as [|? ? Hs' Hall]; subst. destruct Hin as [->|Hin]; [rewrite N.eqb_refl; reflexivity|].
  destruct (N.eqb (p_id p) (p_id h)) eqn:E; [|apply IH; assumption].
  apply N.eqb_eq in E. rewrite Forall_forall in Hall. specialize (Hall (p_id p) (in_map p_id _ _ Hin)). lia.
Qed.

Lemma find_del_proc ps x w : psorted ps -> find_proc (del_proc ps x) w = if N.eqb w x then None else find_proc ps w.
Proof.
  unfold psorted. induction ps as [|h r IH]; cbn [del_proc find_proc map]; intros Hs; [destruct (N.eqb w x); reflexivity|].
  inversion Hs as [|? ? Hs' Hall]; subst.
  destruct (N.eqb x (p_id h)) eqn:E1.
  - apply N.eqb_eq in E1. subst x. destruct (N.eqb w (p_id h)) eqn:E2; [|reflexivity].
    apply N.eqb_eq in E2. subst w. apply find_proc_none. intros Hin. rewrite Forall_forall in Hall.
    specialize (Hall _ Hin). lia.
  - cbn [find_proc]. destruct (N.eqb w (p_id h)) eqn:E2.
    + apply N.eqb_eq in E2. subst w. rewrite N.eqb_sym, E1. reflexivity.
    + apply IH. exact Hs'.
Qed.

Lemma del_proc_incl ps x y : In y (map p_id (del_proc ps x)) -> In y (map p_id ps).
Proof.
  induction ps as [|h r IH]; cbn [del_proc map In]; [auto|].
  destruct (N.eqb x (p_id h)); [intros H; right; exact H|]. cbn [map In]. intros [H|H]; auto.
Qed.
Lemma del_proc_sorted ps x : psorted ps -> psorted (del_proc ps x).
Proof.
  unfold psorted. induction ps as [|h r IH]; cbn [del_proc map]; intros Hs; [constructor|].
  inversion Hs as [|? ? Hs' Hall]; subst. destruct (N.eqb x (p_id h)); [exact Hs'|].
  cbn [map]. constructor; [apply IH; exact Hs'|]. rewrite Forall_forall in *. intros y Hy. apply Hall.
  eapply del_proc_incl; exact Hy.
Qed.

Lemma find_map_proc (f : wproc -> wproc) ps w : (forall p, p_id (f p) = p_id p) ->
  find_proc (map f ps) w = option_map f (find_proc ps w).
Proof.
  intros Hf. induction ps as [|h r IH]; cbn [map find_proc]; [reflexivity|]. rewrite Hf.
  destruct (N.eqb w (p_id h)); [reflexivity | exact IH].
Qed.
Lemma find_map_proc_inv (f : wproc -> wproc) ps w q : (forall p, p_id (f p) = p_id p) ->
  find_proc (map f ps) w = Some q -> exists p, find_proc ps w = Some p /\ q = f p.
Proof.
  intros Hf H. rewrite (find_map_proc f _ _ Hf) in H. destruct (find_proc ps w) as [p|]; [|discriminate].
  injection H as <-. exists p. split; reflexivity.
Qed.
Lemma map_proc_sorted (f : wproc -> wproc) ps : (forall p, p_id (f p) = p_id p) -> psorted ps -> psorted (map f ps).
Proof.
  unfold psorted. intros Hf Hs. rewrite map_map. erewrite map_ext; [exact Hs|]. intros a. apply Hf.
Qed.

Definition stateq (s : sys) (x : tid) : option tstate := option_map t_state (find_task (c_tasks (s_core s)) x).

Record PROTO (s : sys) : Prop := mkPROTO {
  pr_sorted : psorted (s_procs s);
  pr_words : forall w p x t, find_proc (s_procs s) w = Some p -> find_task (c_tasks (s_core s)) x = Some t ->
             lang (view_of (t_state t) w (job_running (s_hq s) x)) (uitems x (p_up p)) (local p x) (ditems x (p_down p)) = true;
  pr_rqs : forall w p, find_proc (s_procs s) w = Some p -> rqs_ok (s_core s) p = true;
  pr_local : forall w p, find_proc (s_procs s) w = Some p -> local_ok p = true;
  pr_seen : forall w p x, find_proc (s_procs s) w = Some p -> In x (proc_tids p) -> seen (s_hq s) x = true;
  pr_mnrq : mn_rqs_ok (s_core s) = true;
  pr_mnt : forall x t, find_task (c_tasks (s_core s)) x = Some t -> mn_task_ok (s_core s) t = true;
  pr_jr : forall x t, find_task (c_tasks (s_core s)) x = Some t -> jr_ok (s_hq s) t = true;
  pr_rvt : forall x t w rv, find_task (c_tasks (s_core s)) x = Some t -> t_state t = Assigned w rv -> rv = 0;
  pr_rvr : forall r, In r (c_redirects (s_core s)) -> snd (snd r) = 0
}.

Lemma rv_ok_split c : rv_ok c = true <->
  (forall t, In t (c_tasks c) -> forall w rv, t_state t = Assigned w rv -> rv = 0) /\
  (forall r, In r (c_redirects c) -> snd (snd r) = 0).
Proof.
  unfold rv_ok. rewrite andb_true_iff, !forallb_forall. split.
  - intros [H1 H2]. split.
    + intros t Ht w rv E. specialize (H1 _ Ht). rewrite E in H1. apply N.eqb_eq in H1. exact H1.
    + intros r Hr. apply N.eqb_eq. apply H2. exact Hr.
  - intros [H1 H2]. split.
    + intros t Ht. destruct (t_state t) eqn:E; try reflexivity. apply N.eqb_eq. eapply H1; eassumption.
    + intros r Hr. apply N.eqb_eq. apply H2. exact Hr.
Qed.

Theorem proto_ok_PROTO s : proto_ok s = true -> PROTO s.
Proof.
  unfold proto_ok. intros H.
  apply andb_prop in H as [H H8]. apply andb_prop in H as [H H7]. apply andb_prop in H as [H H6]. apply andb_prop in H as [H H5].
  apply andb_prop in H as [H H4]. apply andb_prop in H as [H H3]. apply andb_prop in H as [H H2]. apply andb_prop in H as [H9 H1].
  rewrite forallb_forall in H1, H2, H3, H4, H6, H7.
  constructor.
  - apply ns_sorted_iff. exact H9.
  - intros w p x t Hp Ht. destruct (find_proc_some _ _ _ Hp) as [Ip <-]. destruct (find_task_some _ _ _ Ht) as [It <-].
    specialize (H1 _ Ip). unfold words_ok in H1. rewrite forallb_forall in H1. exact (H1 _ It).
  - intros w p Hp. apply H2. exact (proj1 (find_proc_some _ _ _ Hp)).
  - intros w p Hp. apply H3. exact (proj1 (find_proc_some _ _ _ Hp)).
  - intros w p x Hp Hx. specialize (H4 _ (proj1 (find_proc_some _ _ _ Hp))). unfold occ_seen in H4.
    rewrite forallb_forall in H4. exact (H4 _ Hx).
  - exact H5.
  - intros x t Ht. apply H6. exact (proj1 (find_task_some _ _ _ Ht)).
  - intros x t Ht. apply H7. exact (proj1 (find_task_some _ _ _ Ht)).
  - intros x t w rv Ht E. apply rv_ok_split in H8. destruct H8 as [R1 _]. eapply R1; [exact (proj1 (find_task_some _ _ _ Ht)) | exact E].
  - apply rv_ok_split in H8. apply H8.
Qed.

(** The converse needs the task map to be a map (sorted by id; part of [INV]). *)
Theorem PROTO_proto_ok s : StronglySorted tlt (map t_id (c_tasks (s_core s))) -> PROTO s -> proto_ok s = true.
Proof.
  intros Hts [H9 H1 H2 H3 H4 H5 H6 H7 R1 R2]. unfold proto_ok. repeat match goal with |- _ && _ = true => apply andb_true_intro; split end.
  - apply ns_sorted_iff. exact H9.
  - apply forallb_forall. intros p Ip. unfold words_ok. rewrite forallb_forall. intros t It. unfold task_at_ok.
    apply (H1 (p_id p) p (t_id t) t); [apply in_find_proc; assumption | apply in_find_task; assumption].
  - apply forallb_forall. intros p Ip. eapply H2. apply in_find_proc; eassumption.
  - apply forallb_forall. intros p Ip. eapply H3. apply in_find_proc; eassumption.
  - apply forallb_forall. intros p Ip. unfold occ_seen. rewrite forallb_forall. intros x Hx. eapply H4; [apply in_find_proc; eassumption | exact Hx].
  - exact H5.
  - apply forallb_forall. intros t It. eapply H6. apply in_find_task; eassumption.
  - apply forallb_forall. intros t It. eapply H7. apply in_find_task; eassumption.
  - apply rv_ok_split. split; [|exact R2]. intros t It w rv E. eapply R1; [apply in_find_task; eassumption | exact E].
Qed.

Lemma PROTO_init r m : PROTO (init_sys r m).
Proof. apply proto_ok_PROTO. reflexivity. Qed.
