(** C03, the dependency invariant, part 4: the reactor's entry points keep the invariant
    ([task_finished], [on_cancel_tasks], [task_failed], [on_task_update], worker loss, and new
    tasks: [register_deps], [add_new_tasks], [on_new_tasks]).  A new task keeps the dependencies
    that are in the core, registers itself as their consumer and starts with the number of kept
    dependencies as its counter.  What is needed from outside: no task already in the core lists a
    new id as a dependency (the job layer guarantees it: dependencies are known task ids, new ids
    are unknown). *)
From HQ Require Import Base.Prelude Cluster.Types Cluster.Core Cluster.Reactor Cluster.Worker Cluster.Server Cluster.Sys Cluster.ProofsJob Cluster.ProofsMore Cluster.ProofsTerminal Cluster.ProofsStep Cluster.BijBase Cluster.BijCore Cluster.BijHq Cluster.BijSt Cluster.BijReact Cluster.FrameGen Cluster.CrashFrame Cluster.InvQBase Cluster.InvDBase Cluster.InvDSpec Cluster.InvDRem.
From HQ Require Import Cluster.ReactSplit.
From HQ Require Import Cluster.RejHyp Cluster.StepShape.
From HQ Require Import Cluster.ModelFacts.
From Coq Require Import ZArith Lia Sorting.Sorted.
Local Open Scope N_scope.

Arguments N.add : simpl never.
Arguments N.sub : simpl never.

Lemma fm_upd c x y : fm (upd_task c x) y = mupd (fm c) (t_id x) x y.
Proof. unfold fm, upd_task, mupd. cbn [c_tasks with_tasks]. apply find_set_task. Qed.

Lemma remove_task_fm_nw c id c' stt :
  TS c -> remove_task c id = Ok (c', stt) -> (forall n, stt <> Waiting n) ->
  TS c' /\ forall x, fm c' x = mdel (fm c) id x.
Proof.
  intros Hs H Hnw. pose proof (remove_task_csub _ _ _ _ Hs H) as [Hs' _]. split; [exact Hs'|].
  unfold remove_task in H. destruct (find_task (c_tasks c) id) as [t|] eqn:Ef; [|discriminate].
  destruct (t_state t) eqn:Est; try (inversion H; subst; intros x; unfold fm at 1; cbn [c_tasks with_tasks]; apply fm_del; exact Hs).
  exfalso. apply bind_ok in H. destruct H as (c2 & _ & H).
  destruct (N.ltb 0 unfinished_deps); [apply bind_ok in H; destruct H as (ts & _ & H)|]; inversion H; subst; eapply Hnw; reflexivity.
Qed.

Lemma task_finished_RL s w id s' b : GD (core_of s) -> task_finished s w id = Ok (s', b) -> RL (core_of s) (core_of s').
Proof.
  intros [Hs D] H. unfold task_finished in H.
  destruct (find_task (c_tasks (core_of s)) id) as [t|] eqn:Ef; [|inversion H; subst; apply RL_refl; split; assumption].
  destruct (find_task_some _ _ _ Ef) as [_ Hid].
  apply bind_ok in H. destruct H as (rq & _ & H). apply bind_ok in H. destruct H as (c1 & H1 & H).
  assert (Et : c_tasks c1 = c_tasks (core_of s) /\ is_waiting t = false).
  { unfold is_waiting. destruct (t_state t); try discriminate.
    - split; [|reflexivity]. destruct (negb (N.eqb w0 w)); [discriminate|]. inv_binds H1. inversion H1; reflexivity.
    - split; [|reflexivity]. destruct (negb (N.eqb w0 w)); [discriminate|]. eapply try_remove_redirection_tasks; exact H1.
    - split; [|reflexivity]. destruct (negb (N.eqb w0 w)); [discriminate|]. inv_binds H1. inversion H1; reflexivity.
    - split; [|reflexivity]. destruct ws; [discriminate|]. destruct (N.eqb w0 w); [|discriminate]. eapply reset_mn_workers_tasks; exact H1. }
  destruct Et as [Et Hnw]. cbv zeta in H.
  set (tF := with_state t Finished) in *.
  apply bind_ok in H. destruct H as (s1 & Hf & H).
  destruct (process_task_finished_active _ _ _ Hf) as [C1 _]. unfold core_same in C1. cbn in C1.
  apply bind_ok in H. destruct H as ([c3 retracted] & Hw & H).
  apply bind_ok in H. destruct H as (s2 & Hr & H).
  apply bind_ok in H. destruct H as ([c4 stt] & Hrm & H).
  destruct stt; try discriminate. inversion H; subst s' b. clear H.
  rewrite C1 in Hw.
  (* the map after marking the task finished *)
  assert (T2 : TS (upd_task c1 tF)).
  { apply (upd_task_TS c1 tF t); [unfold TS; rewrite Et; exact Hs | cbn; rewrite Et, Hid; exact Ef]. }
  assert (F2 : forall x, fm (upd_task c1 tF) x = mupd (fm (core_of s)) id tF x).
  { intros x. rewrite fm_upd. cbn [t_id tF with_state]. rewrite Hid. unfold mupd, fm. rewrite Et. reflexivity. }
  destruct (wake_consumers_fm _ _ _ _ _ (dx_nc _ _ D _ _ Ef) Hw) as [T3 F3].
  pose proof (process_retracted_scr _ _ _ Hr) as [T4 S4]. cbn in T4, S4.
  destruct (remove_task_fm_nw _ _ _ _ (T4 (T3 T2)) Hrm) as [T5 F5]; [intros n; discriminate|].
  (* the woken map without the finished task *)
  pose (A := fun x => mdel (fm c3) id x).
  assert (EA : forall x, A x = woken (mdel (fm (core_of s)) id) (t_consumers t) x).
  { intros x. unfold A, mdel. rewrite F3. unfold woken. cbn [t_consumers tF with_state]. rewrite F2. unfold mupd, mdel.
    destruct (tid_eqb x id); [destruct (tid_mem x (t_consumers t)); reflexivity | reflexivity]. }
  pose proof (DI_finish _ A id t D Ef Hnw EA) as DA.
  assert (SA : SC A (fm c4)) by (eapply (SC_del _ _ A (fm c4) id S4); [intros x; reflexivity | exact F5]).
  split; [split; [exact T5 | eapply DI_SC; [exact DA | exact SA]]|].
  cbn [core_of st_core fst with_core s_core].
  eapply dsub_trans; [|apply SC_dsub; exact SA].
  intros x t' Ex. rewrite EA in Ex. unfold woken, mdel in Ex.
  destruct (tid_eqb x id); [destruct (tid_mem x (t_consumers t)); discriminate|].
  destruct (fm (core_of s) x) as [tx|] eqn:Etx; [|destruct (tid_mem x (t_consumers t)); discriminate].
  exists tx. split; [reflexivity|]. destruct (tid_mem x (t_consumers t)); cbn in Ex; inversion Ex; [|reflexivity].
  destruct (dec_state_edges tx) as (_ & Hd & _). exact Hd.
Qed.

Lemma cancel_release_closed ts ids : forall s tu ru s' tu' ru',
  DI (find_task ts) -> c_tasks (core_of s) = ts -> cclosed (find_task ts) tu ->
  cancel_release s ids tu ru = Ok (s', tu', ru') -> cclosed (find_task ts) tu'.
Proof.
  intros s tu ru s' tu' ru' D. revert s tu ru s' tu' ru'.
  induction ids as [|id r IH]; cbn [cancel_release]; intros s tu ru s' tu' ru' Es Hc H; [inversion H; subst; exact Hc|].
  destruct (find_task (c_tasks (core_of s)) id) as [t|] eqn:Ef; [|eapply IH; eassumption].
  apply bind_ok in H. destruct H as (csm & Hcs & H). apply bind_ok in H. destruct H as (rq & _ & H).
  rewrite Es in Ef, Hcs.
  assert (W : WFc ts) by (eapply (DX_WFc [] (mkCore ts [] [] [] [] false 0 0 0)); exact D).
  assert (Hdom : forall y, In y (t_consumers t) -> find_task ts y <> None).
  { intros y Hy. destruct (dx_cons _ _ D _ _ _ Ef Hy) as (ct & Ec & _). congruence. }
  destruct (recursive_consumers_closed ts t csm W (dx_nc _ _ D _ _ Ef) Hdom Hcs) as [I1 I2].
  assert (Hc' : cclosed (find_task ts) (tid_insert_all csm (tid_insert id tu))).
  { intros x tx y Hx Ex Hy. apply tid_insert_all_iff. apply tid_insert_all_iff in Hx. destruct Hx as [Hx|Hx]; [left; eapply I2; eassumption|].
    destruct (tid_insert_in _ _ _ Hx) as [->|Hx'].
    - rewrite Ef in Ex. inversion Ex; subst tx. left. apply I1. exact Hy.
    - right. apply tid_insert_keeps. eapply Hc; eassumption. }
  destruct (t_state t); try discriminate.
  - eapply IH; [|exact Hc'|exact H]. exact Es.
  - inv_binds H. eapply IH; [|exact Hc'|exact H]. exact Es.
  - inv_binds H. eapply IH; [|exact Hc'|exact H]. exact Es.
  - apply bind_ok in H. destruct H as (c' & Hc1 & H). eapply IH; [|exact Hc'|exact H].
    cbn. rewrite (try_remove_redirection_tasks _ _ _ Hc1). exact Es.
  - inv_binds H. eapply IH; [|exact Hc'|exact H]. exact Es.
  - apply bind_ok in H. destruct H as (c' & Hc1 & H). destruct ws; [discriminate|]. eapply IH; [|exact Hc'|exact H].
    cbn. rewrite (reset_mn_all_tasks _ _ _ Hc1). exact Es.
Qed.

Lemma on_cancel_tasks_RL s ids s' : GD (core_of s) -> on_cancel_tasks s ids = Ok s' -> RL (core_of s) (core_of s').
Proof.
  intros [Hs D] H. unfold on_cancel_tasks in H.
  apply bind_ok in H. destruct H as ([[s1 tu] ru] & H1 & H). apply bind_ok in H. destruct H as (c' & H2 & H).
  pose proof (cancel_release_tasks _ _ _ _ _ _ _ H1) as E1.
  assert (Hcl : cclosed (fm (core_of s)) tu).
  { eapply (cancel_release_closed (c_tasks (core_of s)) ids s [] [] s1 tu ru); [exact D | reflexivity | intros x tx y [] | exact H1]. }
  rewrite (send_all_core _ _ _ H). cbn [core_of st_core fst with_core s_core].
  assert (Hs1 : TS (core_of s1)) by (unfold TS; rewrite E1; exact Hs).
  assert (Efm : fm (core_of s1) = fm (core_of s)) by (unfold fm; rewrite E1; reflexivity).
  assert (D1 : DX tu (fm (core_of s1))) by (rewrite Efm; apply DX_start; [exact D | exact Hcl]).
  destruct (remove_tasks_batched_DX tu tu _ _ Hs1 D1 (incl_refl _) H2) as (T2 & D2 & N2 & _ & S2).
  split; [split; [exact T2 | eapply DX_end; [exact D2 | exact N2]] | rewrite <- Efm; exact S2].
Qed.

Lemma task_failed_RL s w id k s' : GD (core_of s) -> task_failed s w id k = Ok s' -> RL (core_of s) (core_of s').
Proof.
  intros [Hs D] H. unfold task_failed in H.
  destruct (find_task (c_tasks (core_of s)) id) as [t|] eqn:Ef; [|inversion H; subst; apply RL_refl; split; assumption].
  apply bind_ok in H. destruct H as (rq & _ & H). apply bind_ok in H. destruct H as (c1 & H1 & H).
  assert (Et : c_tasks c1 = c_tasks (core_of s))
    by (destruct (failed_release _ _ _ _ _ _ H1) as [Hrel | (-> & _)]; [exact (released_tasks _ _ _ _ _ Hrel) | reflexivity]).
  assert (Efm : fm c1 = fm (core_of s)) by (unfold fm; rewrite Et; reflexivity).
  assert (Hs1 : TS c1) by (unfold TS; rewrite Et; exact Hs).
  apply bind_ok in H. destruct H as (csm & Hcs & H). rewrite Et in Hcs.
  assert (W : WFc (c_tasks (core_of s))) by (eapply DX_WFc; exact D).
  assert (Hdom : forall y, In y (t_consumers t) -> find_task (c_tasks (core_of s)) y <> None).
  { intros y Hy. destruct (dx_cons _ _ D _ _ _ Ef Hy) as (ct & Ec & _). unfold fm in Ec. congruence. }
  destruct (recursive_consumers_closed _ t csm W (dx_nc _ _ D _ _ Ef) Hdom Hcs) as [I1 I2].
  pose proof (closed_with_root (fm (core_of s)) csm id t Ef I1 I2) as Hcl.
  set (X := csm ++ [id]) in *.
  assert (D1 : DX X (fm c1)) by (rewrite Efm; apply DX_start; [exact D | exact Hcl]).
  apply bind_ok in H. destruct H as (c2 & H2 & H).
  assert (Hi1 : incl csm X) by (intros x Hx; apply in_app_iff; left; exact Hx).
  destruct (remove_waiting_consumers_DX X csm _ _ Hs1 D1 Hi1 H2) as (T2 & D2 & N2 & _ & S2).
  apply bind_ok in H. destruct H as ([c3 stt] & H3 & H).
  assert (Hi2 : In id X) by (apply in_app_iff; right; left; reflexivity).
  destruct (remove_task_DX X _ _ _ _ T2 D2 Hi2 H3) as (T3 & D3 & N3 & K3 & S3).
  assert (G3 : GD c3).
  { split; [exact T3|]. eapply DX_end; [exact D3|]. intros x Hx. apply in_app_iff in Hx.
    destruct Hx as [Hx|[<-|[]]]; [apply K3, N2; exact Hx | exact N3]. }
  assert (R3 : RL (core_of s) c3).
  { split; [exact G3|]. rewrite <- Efm. eapply dsub_trans; eassumption. }
  apply bind_ok in H. destruct H as (u & _ & H).
  apply bind_ok in H. destruct H as ([s1 cancel_ids] & H4 & H).
  pose proof (process_task_failed_core _ _ _ _ _ _ H4) as C4. cbn in C4.
  destruct cancel_ids as [|c0 cr].
  - inversion H; subst s'. rewrite C4. exact R3.
  - eapply RL_trans; [exact R3|]. rewrite <- C4. eapply on_cancel_tasks_RL; [rewrite C4; exact G3 | exact H].
Qed.

Lemma apply_one_RL s w u s' n : apply_one s w u = Ok (s', n) -> RLs s s'.
Proof.
  intros Hu G. destruct u; cbn [apply_one] in Hu.
  - eapply task_finished_RL; eassumption.
  - apply bind_ok in Hu. destruct Hu as (sx & Hf & Hu). inversion Hu; subst. eapply task_failed_RL; eassumption.
  - apply RL_scr; [exact G | eapply task_running_scr; exact Hu].
  - apply RL_scr; [exact G | eapply task_running_scr; exact Hu].
  - apply RL_scr; [exact G | eapply task_reject_scr; exact Hu].
  - apply bind_ok in Hu. destruct Hu as (sx & Hf & Hu). inversion Hu; subst.
    apply RL_scr; [exact G | apply scr_tasks; eapply request_enabled_tasks; exact Hf].
Qed.

Lemma apply_updates_RL us : forall s w need s' need',
  GD (core_of s) -> apply_updates s w us need = Ok (s', need') -> RL (core_of s) (core_of s').
Proof. intros s w need s' need' G H. exact (apply_updates_rel RLs RLs_refl RLs_trans apply_one_RL _ _ _ _ _ _ H G). Qed.

Lemma on_task_update_RL s w us s' : GD (core_of s) -> on_task_update s w us = Ok s' -> RL (core_of s) (core_of s').
Proof. intros G H. exact (on_task_update_rel RLs RLs_refl RLs_trans apply_one_RL s w us s' (fun x => RLs_refl x) H G). Qed.

Lemma lost_fail_running_RL l : forall s reason s',
  GD (core_of s) -> lost_fail_running s reason l = Ok s' -> RL (core_of s) (core_of s').
Proof.
  intros s reason s' G H. refine (lost_fail_running_rel RLs RLs_refl RLs_trans _ _ l s reason s' H G).
  - intros s0 id t Ef G0. apply RL_scr; [exact G0|].
    eapply (scr_upd _ (core_of s0) _ id t); [reflexivity | exact Ef | reflexivity | edges | left; reflexivity].
  - intros s0 id k s1 _ Hf G0. eapply task_failed_RL; eassumption.
Qed.

Lemma register_deps_fm deps : forall c id kept count c' kept' count',
  NoDup deps -> (forall x t, fm c x = Some t -> t_state t <> Finished) ->
  register_deps c id deps kept count = (c', kept', count') ->
  (TS c -> TS c') /\
  (forall x, fm c' x = regm (fm c) deps id x) /\
  kept' = kept ++ filter (inm (fm c)) deps /\
  count' = count + N.of_nat (length (filter (inm (fm c)) deps)).
Proof.
  induction deps as [|d r IH]; cbn [register_deps]; intros c id kept count c' kept' count' Hnd Hnf H.
  - inversion H; subst. split; [auto|]. split; [|split; [rewrite app_nil_r; reflexivity | cbn; lia]].
    intros x. unfold regm. cbn [tid_mem]. destruct (fm c' x); reflexivity.
  - inversion Hnd as [|? ? Hn Hr]; subst.
    destruct (find_task (c_tasks c) d) as [dep|] eqn:Ef.
    + destruct (find_task_some _ _ _ Ef) as [_ Hid].
      set (dep' := with_consumers dep (tid_insert id (t_consumers dep))) in *.
      set (c1 := upd_task c dep') in *.
      assert (F1 : forall x, fm c1 x = mupd (fm c) d dep' x) by (intros x; unfold c1; rewrite fm_upd; cbn [t_id dep' with_consumers]; rewrite Hid; reflexivity).
      assert (Hnf1 : forall x t, fm c1 x = Some t -> t_state t <> Finished).
      { intros x t Ex. rewrite F1 in Ex. unfold mupd in Ex. destruct (tid_eqb x d); [inversion Ex; subst; cbn; eapply Hnf; exact Ef | eapply Hnf; exact Ex]. }
      assert (Hfin : is_finished dep = false).
      { unfold is_finished. pose proof (Hnf _ _ Ef) as Hx. destruct (t_state dep); try reflexivity. congruence. }
      rewrite Hfin in H.
      destruct (IH _ _ _ _ _ _ _ Hr Hnf1 H) as (T1 & F2 & K2 & C2).
      assert (Hinm : forall y, inm (fm c1) y = inm (fm c) y).
      { intros y. unfold inm. rewrite F1. unfold mupd. destruct (tid_eqb y d) eqn:E; [|reflexivity]. apply tid_eqb_eq in E. subst y. unfold fm. rewrite Ef. reflexivity. }
      assert (Hfl : filter (inm (fm c1)) r = filter (inm (fm c)) r).
      { clear -Hinm. induction r as [|h t IHr]; [reflexivity|]. cbn [filter]. rewrite Hinm, IHr. reflexivity. }
      assert (Hd : inm (fm c) d = true) by (unfold inm, fm; rewrite Ef; reflexivity).
      split; [|split; [|split]].
      * intros Hs. apply T1. apply (upd_task_TS c dep' dep); [exact Hs | cbn; rewrite Hid; exact Ef].
      * intros x. rewrite F2. unfold regm. rewrite F1. unfold mupd. cbn [tid_mem].
        destruct (tid_eqb x d) eqn:E.
        -- apply tid_eqb_eq in E. subst x. cbn [orb]. apply tid_mem_nIn in Hn. rewrite Hn. unfold fm. rewrite Ef. reflexivity.
        -- cbn [orb]. reflexivity.
      * rewrite K2, Hfl. cbn [filter]. rewrite Hd, <- app_assoc. reflexivity.
      * rewrite C2, Hfl. cbn [filter]. rewrite Hd. cbn [length]. lia.
    + destruct (IH _ _ _ _ _ _ _ Hr Hnf H) as (T1 & F2 & K2 & C2).
      assert (Hd : inm (fm c) d = false) by (unfold inm, fm; rewrite Ef; reflexivity).
      split; [exact T1|]. split; [|split].
      * intros x. rewrite F2. unfold regm. cbn [tid_mem]. destruct (tid_eqb x d) eqn:E; [|reflexivity].
        apply tid_eqb_eq in E. subst x. unfold fm. rewrite Ef. reflexivity.
      * rewrite K2. cbn [filter]. rewrite Hd. reflexivity.
      * rewrite C2. cbn [filter]. rewrite Hd. reflexivity.
Qed.

Lemma register_deps_dom deps : forall c id kept count c' kept' count',
  register_deps c id deps kept count = (c', kept', count') -> forall x, inm (fm c') x = inm (fm c) x.
Proof.
  induction deps as [|d r IH]; cbn [register_deps]; intros c id kept count c' kept' count' H x; [inversion H; reflexivity|].
  destruct (find_task (c_tasks c) d) as [dep|] eqn:Ef; [|eapply IH; exact H].
  rewrite (IH _ _ _ _ _ _ _ H x). unfold inm. rewrite fm_upd. unfold mupd. cbn [t_id with_consumers].
  destruct (find_task_some _ _ _ Ef) as [_ Hid]. rewrite Hid.
  destruct (tid_eqb x d) eqn:E; [|reflexivity]. apply tid_eqb_eq in E. subst x. unfold fm. rewrite Ef. reflexivity.
Qed.

(** The model refuses (panic 231) an id that is already in the core. *)
Lemma add_new_ids_fresh ts : forall c ret c' ret',
  add_new_tasks c ts ret = Ok (c', ret') ->
  (forall t, In t ts -> fm c (t_id t) = None) /\ (forall x, inm (fm c) x = true -> inm (fm c') x = true).
Proof.
  induction ts as [|t r IH]; cbn [add_new_tasks]; intros c ret c' ret' H; [inversion H; subst; split; [intros t [] | auto]|].
  destruct (register_deps c (t_id t) (t_deps t) [] 0) as [[c1 kept] count] eqn:Er.
  pose proof (register_deps_dom _ _ _ _ _ _ _ _ Er) as D1.
  apply bind_ok in H. destruct H as ([c2 rt] & H2 & H).
  assert (E2 : c_tasks c2 = c_tasks c1).
  { destruct (N.eqb count 0); [|inversion H2; reflexivity]. inv_binds H2. inversion H2; reflexivity. }
  destruct (find_task (c_tasks c2) (t_id t)) eqn:Ef; [discriminate|].
  destruct (IH _ _ _ _ H) as [I1 I2].
  assert (Hmono : forall x, inm (fm c) x = true -> inm (fm (upd_task c2 (with_state (with_deps t kept) (Waiting count)))) x = true).
  { intros x Hx. unfold inm. rewrite fm_upd. unfold mupd. destruct (tid_eqb x _); [reflexivity|].
    rewrite <- D1 in Hx. unfold inm, fm in *. rewrite E2. exact Hx. }
  split.
  - intros t' [<-|Hin].
    + rewrite E2 in Ef. apply inm_false. rewrite <- D1. apply inm_false. exact Ef.
    + specialize (I1 _ Hin). apply inm_false. apply inm_false in I1.
      destruct (inm (fm c) (t_id t')) eqn:E; [|reflexivity]. rewrite (Hmono _ E) in I1. discriminate.
  - intros x Hx. apply I2, Hmono, Hx.
Qed.

Definition new_wf (t : task) : Prop := NoDup (t_deps t) /\ t_consumers t = [].

(** Where the tasks of the new map come from. *)
Definition grown (ts : list task) (m m' : tmap) : Prop :=
  forall x tx', m' x = Some tx' ->
    (exists tx, m x = Some tx /\ t_deps tx' = t_deps tx) \/
    (exists t, In t ts /\ x = t_id t /\ incl (t_deps tx') (t_deps t) /\ forall d, In d (t_deps tx') -> m' d <> None).

Lemma add_new_tasks_DI ts : forall c ret c' ret',
  GD c -> Forall new_wf ts ->
  (forall t x tx, In t ts -> fm c x = Some tx -> ~ In (t_id t) (t_deps tx)) ->
  add_new_tasks c ts ret = Ok (c', ret') ->
  GD c' /\ grown ts (fm c) (fm c').
Proof.
  induction ts as [|t r IH]; cbn [add_new_tasks]; intros c ret c' ret' G Hwf Hnd H.
  - inversion H; subst. split; [exact G|]. intros x tx' Ex. left. eauto.
  - pose proof (add_new_ids_fresh (t :: r) c ret c' ret') as Hfr. cbn [add_new_tasks] in Hfr. specialize (Hfr H).
    destruct Hfr as [Hfresh Hmono].
    inversion Hwf as [|? ? [Hnodup Hnc] Hwf']; subst. destruct G as [Hs D].
    destruct (register_deps c (t_id t) (t_deps t) [] 0) as [[c1 kept] count] eqn:Er.
    destruct (register_deps_fm _ _ _ _ _ _ _ _ Hnodup (fun x tx => dx_nofin _ _ D x tx) Er) as (T1 & F1 & K1 & C1).
    cbn [app] in K1. rewrite N.add_0_l in C1.
    apply bind_ok in H. destruct H as ([c2 rt] & H2 & H).
    assert (E2 : c_tasks c2 = c_tasks c1).
    { destruct (N.eqb count 0); [|inversion H2; reflexivity]. inv_binds H2. inversion H2; reflexivity. }
    destruct (find_task (c_tasks c2) (t_id t)) eqn:Ef; [discriminate|].
    set (t1 := with_state (with_deps t kept) (Waiting count)) in *.
    set (c3 := upd_task c2 t1) in *.
    assert (F3 : forall x, fm c3 x = mupd (regm (fm c) (t_deps t) (t_id t)) (t_id t)
                                          (with_state (with_deps t kept) (Waiting (N.of_nat (length kept)))) x).
    { intros x. unfold c3. rewrite fm_upd. cbn [t_id t1 with_state with_deps]. unfold mupd.
      destruct (tid_eqb x (t_id t)); [unfold t1; rewrite C1, <- K1; reflexivity|]. unfold fm at 1. rewrite E2. apply F1. }
    assert (Hid_fresh : fm c (t_id t) = None) by (apply Hfresh; left; reflexivity).
    assert (D3 : DI (fm c3)).
    { eapply (DI_add (fm c) (fm c3) t kept D Hid_fresh); [|exact Hnodup | exact Hnc | exact K1 | exact F3].
      intros x tx Ex. eapply Hnd; [left; reflexivity | exact Ex]. }
    assert (T3 : TS c3).
    { unfold TS, c3, upd_task. cbn [c_tasks with_tasks]. apply set_task_sorted; rewrite E2; apply T1; exact Hs. }
    destruct (add_new_ids_fresh _ _ _ _ _ H) as [Hfresh3 Hmono3].
    assert (Hdom3 : forall x, inm (fm c) x = true -> inm (fm c3) x = true).
    { intros x Hx. unfold inm. rewrite F3. unfold mupd, regm. destruct (tid_eqb x (t_id t)); [reflexivity|].
      unfold inm in Hx. destruct (fm c x); [destruct (tid_mem x (t_deps t)); reflexivity | discriminate]. }
    assert (Hsrc3 : forall x tx3, fm c3 x = Some tx3 ->
              (x = t_id t /\ tx3 = t1) \/ (exists tx, fm c x = Some tx /\ t_deps tx3 = t_deps tx)).
    { intros x tx3 Ex. rewrite F3 in Ex. unfold mupd, regm in Ex. destruct (tid_eqb x (t_id t)) eqn:E.
      - apply tid_eqb_eq in E. left. split; [exact E|]. inversion Ex. unfold t1. rewrite C1, <- K1. reflexivity.
      - right. destruct (fm c x) as [tx|]; [|discriminate]. exists tx. split; [reflexivity|].
        destruct (tid_mem x (t_deps t)); inversion Ex; reflexivity. }
    assert (Hkept : forall d, In d kept -> In d (t_deps t) /\ inm (fm c) d = true) by (intros d; rewrite K1; apply filter_In).
    assert (Hnd3 : forall t' x tx3, In t' r -> fm c3 x = Some tx3 -> ~ In (t_id t') (t_deps tx3)).
    { intros t' x tx3 Hin Ex Hdep. destruct (Hsrc3 _ _ Ex) as [[-> ->]|(tx & Etx & Ed)].
      - cbn in Hdep. apply Hkept in Hdep. destruct Hdep as [_ Hdep]. apply Hdom3 in Hdep.
        pose proof (Hfresh3 _ Hin) as Hn. apply inm_false in Hn. congruence.
      - rewrite Ed in Hdep. eapply Hnd; [right; exact Hin | exact Etx | exact Hdep]. }
    destruct (IH c3 _ _ _ (conj T3 D3) Hwf' Hnd3 H) as [G' Gr'].
    split; [exact G'|].
    intros x tx' Ex. destruct (Gr' _ _ Ex) as [(tx3 & E3 & Ed3)|(t' & Hin & -> & Hincl & Hdom)].
    + destruct (Hsrc3 _ _ E3) as [[-> ->]|(tx & Etx & Ed)].
      * right. exists t. split; [left; reflexivity|]. split; [reflexivity|]. rewrite Ed3. cbn [t_deps t1 with_state with_deps]. split.
        -- intros d Hd. apply Hkept in Hd. apply Hd.
        -- intros d Hd. apply Hkept in Hd. destruct Hd as [_ Hd]. apply Hdom3, Hmono3 in Hd. apply inm_true in Hd. destruct Hd as (y & Hy). congruence.
      * left. exists tx. split; [exact Etx | congruence].
    + right. exists t'. split; [right; exact Hin|]. split; [reflexivity|]. split; assumption.
Qed.

Lemma on_new_tasks_DI s ts s' :
  GD (core_of s) -> Forall new_wf ts ->
  (forall t x tx, In t ts -> fm (core_of s) x = Some tx -> ~ In (t_id t) (t_deps tx)) ->
  on_new_tasks s ts = Ok s' ->
  GD (core_of s') /\ grown ts (fm (core_of s)) (fm (core_of s')).
Proof.
  intros G Hwf Hnd H. unfold on_new_tasks in H.
  destruct ts as [|t0 tr] eqn:Ets; [inversion H; subst; split; [exact G|]; intros x tx' Ex; left; eauto|].
  rewrite <- Ets in *. clear Ets.
  apply bind_ok in H. destruct H as ([c' retracted] & Ha & H). apply bind_ok in H. destruct H as (s1 & Hr & H). inversion H; subst.
  destruct (add_new_tasks_DI _ _ _ _ _ G Hwf Hnd Ha) as [G1 Gr1].
  pose proof (process_retracted_scr _ _ _ Hr) as S1. cbn in S1.
  pose proof (RL_scr _ _ G1 S1) as [G2 _].
  split; [eapply GD_tasks; [|exact G2]; reflexivity|].
  change (grown ts (fm (core_of s)) (fm (core_of s1))).
  destruct S1 as [_ S1].
  intros x tx' Ex. destruct (SC_some' _ _ _ _ S1 Ex) as (tx1 & E1 & (_ & Hd & _) & _).
  destruct (Gr1 _ _ E1) as [(tx & Etx & Ed)|(t & Hin & -> & Hincl & Hdom)].
  - left. exists tx. split; [exact Etx | congruence].
  - right. exists t. split; [exact Hin|]. split; [reflexivity|]. rewrite Hd. split; [exact Hincl|].
    intros d Hdd. specialize (Hdom d Hdd). specialize (S1 d). destruct (fm c' d); [|congruence].
    destruct (fm (core_of s1) d); [discriminate | contradiction].
Qed.
