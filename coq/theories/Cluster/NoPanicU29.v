(** Stage 3, totality of the server's handling of worker messages, part 3: the composition.

    [worker_messages_never_panic]: in every reachable state, delivering the next message of any
    worker to the server ([OpDUp w]) does not panic.  Premises on the history only:
    - [op_wf] (well-formed witnesses), [ops_ok] (NoPanicU0.v: the solver places single-node classes
      on single-node variants 0 and multi-node classes have no resource amounts - sites 301 / 179 /
      166 are reachable otherwise),
    - [ops_sol_ok] (NoPanicS7.sol_ok on every scheduler answer) and [ops_retract_ok]
      (RetractFree.v, the repair of finding F28): together they give the invariant RSN
      (NoPanicU26.v) without which site 102 is reachable (NoPanicU21.v). *)
From HQ Require Import Base.Prelude Cluster.Types Cluster.Core Cluster.Reactor Cluster.Worker Cluster.Server Cluster.Sys Cluster.Monitors Cluster.RejHyp Cluster.ProofsJob Cluster.ProofsMore Cluster.ProofsTerminal Cluster.ProofsStep Cluster.ProofsFinal Cluster.BijBase Cluster.BijCore Cluster.BijHq Cluster.BijSt Cluster.BijReact Cluster.BijFinal Cluster.InvWBase Cluster.InvWView Cluster.InvWCore Cluster.InvQBase Cluster.InvQInv Cluster.InvBundle Cluster.InvProcsDef Cluster.NoPanicC1 Cluster.NoPanicC2 Cluster.InvWX1 Cluster.InvWX3 Cluster.NoPanicL0 Cluster.NoPanicL4 Cluster.NoPanicS7 Cluster.RetractFree Cluster.NoPanicU0 Cluster.NoPanicU1 Cluster.NoPanicU6 Cluster.NoPanicU8 Cluster.NoPanicU11 Cluster.NoPanicU12 Cluster.NoPanicU13 Cluster.NoPanicU20 Cluster.NoPanicU22 Cluster.NoPanicU23 Cluster.NoPanicU26 Cluster.NoPanicU28 Cluster.NoPanicU10.
From Coq Require Import ZArith Lia Sorting.Sorted.
Local Open Scope N_scope.

(** A worker reports a start only for a task the server has placed on it (as assigned with this
    variant, prefilled, being retracted, or as root of a multi-node task). *)
Lemma running_head s w id rv (pre : bool) r t :
  SP x0 s (pum_us w ((if pre then URunningPrefilled id rv else URunning id rv) :: r)) [] ->
  find_task (c_tasks (core_of s)) id = Some t ->
  t_state t = Assigned w rv \/ t_state t = Prefilled w \/ t_state t = Retracting w \/ exists ws, t_state t = RunningMN (w :: ws).
Proof.
  intros HS Ef. destruct (pum_us_proc _ _ _ _ _ HS) as (p & Hp).
  pose proof (head_item _ _ _ _ _ _ _ _ _ HS Ef eq_refl Hp) as Hl.
  assert (Hi : uitem_of id (if pre then URunningPrefilled id rv else URunning id rv) = [IRun pre rv]) by (destruct pre; apply sel_same).
  rewrite Hi in Hl. cbn [app] in Hl.
  destruct (LS_run _ _ _ _ _ _ Hl) as [[(Ev & _)|[(Ev & _)|[(Ev & _)|(Ev & _)]]] _].
  - left. exact (view_VA _ _ _ _ Ev).
  - right. left. exact (view_VP _ _ _ Ev).
  - right. right. left. exact (view_VT _ _ _ Ev).
  - right. right. right. exact (proj2 (view_VM _ _ _ _ Ev)).
Qed.

Lemma apply_one_tot s w u r : SP x0 s (pum_us w (u :: r)) [] -> LI s -> RSN (core_of s) ->
  exists x, apply_one s w u = Ok x.
Proof.
  intros HS HL HR. destruct (pum_us_proc _ _ _ _ _ HS) as (p & Hp).
  destruct u as [id|id k|id rv|id rv|id rv0|rq rv]; cbn [apply_one].
  - (* finished *)
    destruct (find_task (c_tasks (core_of s)) id) as [t|] eqn:Ef; [|unfold task_finished; rewrite Ef; eauto].
    destruct (finished_head s w id r t HS Ef) as [R Hst].
    apply (task_finished_tot s w id t HL Ef Hst).
    rewrite job_running_jv in R. destruct (sp_act _ _ _ _ HS _ _ Ef eq_refl) as [A|A]; rewrite A in *; [discriminate | reflexivity].
  - (* failed *)
    destruct (find_task (c_tasks (core_of s)) id) as [t|] eqn:Ef; [|unfold task_failed; rewrite Ef; cbn [bind]; eauto].
    pose proof (head_item _ _ _ _ _ _ _ _ _ HS Ef eq_refl Hp) as Hl. cbn [uitem_of] in Hl. rewrite sel_same in Hl. cbn [app] in Hl.
    pose proof (view_placed _ _ _ (LS_fail _ _ _ _ _ Hl)) as Hpl.
    destruct (task_failed_some_tot s w id k t HL Ef Hpl) as (s' & ->); [|cbn [bind]; eauto].
    (* the request class is multi-node exactly when the placement is *)
    pose proof (sp_mnt _ _ _ _ HS _ _ Ef eq_refl) as Hm. unfold mn_task_ok in Hm.
    intros rq Hrq. rewrite (get_rq_nth _ _ _ Hrq) in Hm.
    destruct (t_state t) as [k0|w1 rv1|w1|w1|w1 rv1|ws|]; cbn [is_mn_state] in *; try (destruct Hpl; fail);
      try (apply negb_true_iff in Hm); exact Hm.
  - (* running *)
    apply task_running_tot; [exact HL | exact HR|]. intros t Ef. exact (running_head s w id rv false r t HS Ef).
  - (* running (prefilled) *)
    apply task_running_tot; [exact HL | exact HR|]. intros t Ef. exact (running_head s w id rv true r t HS Ef).
  - (* reject *)
    destruct (find_task (c_tasks (core_of s)) id) as [t|] eqn:Ef; [|unfold task_reject; rewrite Ef; eauto].
    destruct (reject_head x0 s w id rv0 r [] t HS Ef eq_refl) as (rv & -> & Est).
    exact (task_reject_tot s w id rv t HL Ef Est).
  - (* enable *)
    destruct (request_enabled_tot s w rq rv HL) as (s' & ->); [rewrite Hp; discriminate | cbn [bind]; eauto].
Qed.

Lemma JS_apply_one s w u s' b : JS (core_of s) -> apply_one s w u = Ok (s', b) -> JS (core_of s').
Proof.
  intros HJ H. eapply JS_RS; [exact HJ|]. eapply (apply_updates_RS [u] s w false s' (false || b)).
  rewrite apply_updates_cons, H. reflexivity.
Qed.

Lemma apply_updates_tot us : forall s w need, SP x0 s (pum_us w us) [] -> LI s -> RSN (core_of s) ->
  exists x, apply_updates s w us need = Ok x.
Proof.
  induction us as [|u r IH]; intros s w need HS HL HR; [eexists; reflexivity|].
  rewrite apply_updates_cons. destruct (apply_one_tot s w u r HS HL HR) as ([s1 n1] & H1). rewrite H1. cbn [bind].
  apply IH.
  - eapply apply_one_SP; eassumption.
  - eapply LI_apply_one; [exact HL | eapply SP_reject_fresh; exact HS | exact H1].
  - apply JS_RSN. eapply JS_apply_one; [apply JS_RSN; exact HR | exact H1].
Qed.

Lemma LI_procs s o s' o' : LI (s, o) -> s_core s' = s_core s -> s_hq s' = s_hq s -> map p_id (s_procs s') = map p_id (s_procs s) -> LI (s', o').
Proof.
  intros [Hok HC HW V HG HJ HP] Ec Eh Ep.
  assert (E1 : core_of (s', o') = core_of (s, o)) by exact Ec.
  assert (E2 : hq_of (s', o') = hq_of (s, o)) by exact Eh.
  constructor.
  - rewrite E2. exact Hok.
  - eapply (CB_frame (s, o)); [unfold K; rewrite E1; reflexivity | | exact HC].
    apply active_same. intros id. unfold jt. rewrite E2. reflexivity.
  - rewrite E1. exact HW.
  - rewrite E1. exact V.
  - rewrite E1. exact HG.
  - rewrite E1. exact HJ.
  - destruct HP as [H1 H2]. split; [rewrite E1; exact H1|].
    rewrite E1. unfold pids in *. cbn [fst] in *. rewrite Ep. exact H2.
Qed.

Theorem worker_messages_never_panic_state s w :
  INV s -> PW s -> InvWX1.J (s_core s) -> PROTO s -> RSN (s_core s) -> is_panic (step s (OpDUp w)) = false.
Proof.
  intros HI HPW HJ HP HR. cbn [step].
  destruct (find_proc (s_procs s) w) as [p|] eqn:Hp; [|reflexivity]. destruct (p_up p) as [|m rest] eqn:Eu; [reflexivity|].
  pose proof (SP_pop s w p m rest [OUp w m] HP (INV_UH _ HI) Hp Eu) as S1.
  set (s1 := (with_procs s (set_proc (s_procs s) (wp_up p rest)), [OUp w m]) : st) in *.
  assert (HL : LI s1).
  { apply (LI_procs s [] _ _ (NoPanicL4.LI_of_INV s [] HI HPW HJ)); [reflexivity | reflexivity|].
    cbn [s_procs with_procs]. eapply (NoPanicL0.set_proc_keep _ w p); [| reflexivity | exact Hp].
    pose proof (PI_SI _ (li_pi _ (NoPanicL4.LI_of_INV s [] HI HPW HJ))) as [_ X]. exact X. }
  destruct m as [us|ids].
  - unfold on_task_update. destruct (apply_updates_tot us s1 w false S1 HL HR) as ([s2 need] & ->). cbn [bind].
    destruct (need && _); reflexivity.
  - destruct (on_retract_response_tot s1 w ids HL) as (s2 & ->). reflexivity.
Qed.

Theorem worker_messages_never_panic ops reserve maxfill s outs w :
  Forall op_wf ops -> ops_ok (init_sys reserve maxfill) ops = true ->
  ops_sol_ok (init_sys reserve maxfill) ops = true -> ops_retract_ok (init_sys reserve maxfill) ops = true ->
  run (init_sys reserve maxfill) ops = Ok (s, outs) ->
  is_panic (step s (OpDUp w)) = false.
Proof.
  intros Hwf Hok Hsol Hret H.
  destruct (reachable_PROTO ops reserve maxfill s outs Hwf Hok H) as [HP Hf].
  pose proof (reachable_INV _ _ _ _ _ Hwf Hf H) as HI.
  pose proof (reachable_PW _ _ _ _ _ H) as HPW.
  pose proof (reachable_RSN ops reserve maxfill s outs Hwf Hok Hsol Hret H) as HR.
  assert (HJ : InvWX1.J (s_core s)).
  { apply J_MNE_RWA. destruct (reachable_MNE_RWA _ _ _ _ _ Hwf Hf H) as [A B]. split; [exact A|]. split; [exact B|].
    exact (reachable_MND _ _ _ _ _ Hwf H). }
  apply worker_messages_never_panic_state; assumption.
Qed.

Print Assumptions worker_messages_never_panic.
