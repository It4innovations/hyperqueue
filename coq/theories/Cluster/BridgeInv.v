(** Bridge, part 5: whole histories.

    MAIN RESULT ([sys_journal_first_reject], every history of the system model, no hypothesis):
    run the journal machine [Gen.gstep] over the journal a history writes.  Either every record is
    accepted and the final [G] is related to the final job layer by [RelJ], or the FIRST rejected
    record is a TaskStarted / TaskFinished / WorkerConnected / WorkerLost record.  In other words
    every check of [gstep] on submit, open, close, completed, cancel, failed, canceled and aborted
    records (job and task existence, open flag, validate_submit, "job terminated", "job active",
    non-terminal target states, id high-water mark of jobs) is PROVED to pass on the journals of the
    system model.  The remaining checks (a start hits a waiting task, its workers are connected,
    instance ids increase, a finish hits a running task, worker ids increase, a lost worker is
    connected) depend on the tako core; they are the executable hypothesis [core_records_accepted]
    of [sys_journal_producible_partial] (true on every history evaluated, see [BridgeCor]).
    The full statement is [sys_journal_producible_full]. *)
From HQ Require Import Base.Prelude Cluster.Types Cluster.Core Cluster.Reactor Cluster.Worker Cluster.Server Cluster.Sys Cluster.ProofsJob Cluster.ProofsMore Cluster.ProofsStep.
From HQ Require Journal.Event Journal.Restore Journal.Gen Journal.Maps Journal.RestoreProofs.
From HQ Require Import Cluster.Bridge Cluster.BridgeRel Cluster.BridgeEv Cluster.BridgeJob Cluster.BridgeStep.
From Coq Require Import ZArith Lia.
Local Open Scope N_scope.

Fixpoint jevents_of_run (s : sys) (ops : list op) : list Event.Event :=
  match ops with
  | [] => []
  | o :: r => match step s o with
              | Ok (s1, o1) => jevents_of_step s o o1 ++ jevents_of_run s1 r
              | _ => []
              end
  end.

Lemma jrun_cons s o r s' evs : jrun s (o :: r) = Ok (s', evs) ->
  exists s1 o1 e2, step s o = Ok (s1, o1) /\ jrun s1 r = Ok (s', e2) /\ evs = jevents_of_step s o o1 ++ e2.
Proof.
  cbn [jrun]. intros H. apply bind_ok in H. destruct H as ([s1 o1] & H1 & H). apply bind_ok in H. destruct H as ([s2 e2] & H2 & H).
  injection H as <- <-. eauto 6.
Qed.

Lemma jrun_run ops : forall s s' evs, jrun s ops = Ok (s', evs) ->
  exists outs, run s ops = Ok (s', outs) /\ evs = jevents_of_run s ops.
Proof.
  induction ops as [|o r IH]; intros s s' evs H.
  - injection H as <- <-. eexists; split; reflexivity.
  - destruct (jrun_cons _ _ _ _ _ H) as (s1 & o1 & e2 & H1 & H2 & ->). destruct (IH _ _ _ H2) as (outs & Hr & ->).
    cbn [run jevents_of_run]. rewrite H1. cbn [bind]. rewrite Hr. eexists. split; reflexivity.
Qed.

Lemma run_jrun ops : forall s s' outs, run s ops = Ok (s', outs) -> jrun s ops = Ok (s', jevents_of_run s ops).
Proof.
  induction ops as [|o r IH]; cbn [jrun run jevents_of_run]; intros s s' outs H.
  - inversion H; subst. reflexivity.
  - apply bind_ok in H. destruct H as ([s1 o1] & H1 & H). apply bind_ok in H. destruct H as ([s2 o2] & H2 & H). inversion H; subst.
    rewrite H1. cbn [bind]. rewrite (IH _ _ _ H2). reflexivity.
Qed.

Lemma jrun_sim ops : forall s s' evs, HOK (s_hq s) -> jrun s ops = Ok (s', evs) -> SimE (s_hq s) evs (s_hq s').
Proof.
  induction ops as [|o r IH]; intros s s' evs H Hc.
  - injection Hc as <- <-. apply SimE_nil.
  - destruct (jrun_cons _ _ _ _ _ Hc) as (s1 & o1 & e2 & H1 & H2 & ->).
    destruct (step_sim _ _ _ _ H H1) as (ext & He & HS). cbn [snd app] in He. subst ext.
    eapply SimE_app; [exact HS|]. eapply IH; [|exact H2]. eapply step_hq_ok; eassumption.
Qed.

Lemma HOK_init reserve maxfill : HOK (s_hq (init_sys reserve maxfill)).
Proof. intros j []. Qed.

Lemma RelJ_init reserve maxfill u :
  exists g1, Gen.gstep Gen.g0 (Event.EServerStart u) = Some g1 /\ RelJ (s_hq (init_sys reserve maxfill)) g1.
Proof. eexists. split; [reflexivity|]. split; [intros j; exact I | reflexivity]. Qed.

Theorem sys_journal_first_reject : forall ops reserve maxfill u s evs,
  jrun (init_sys reserve maxfill) ops = Ok (s, evs) ->
  match lrun Gen.g0 (journal_of u evs) with
  | LOk g => RelJ (s_hq s) g
  | LCore => True
  | LBad => False
  end.
Proof.
  intros ops reserve maxfill u s evs H.
  destruct (RelJ_init reserve maxfill u) as (g1 & Hg & HR).
  unfold journal_of. cbn [lrun]. unfold lstep. rewrite Hg.
  exact (jrun_sim _ _ _ _ (HOK_init reserve maxfill) H g1 HR).
Qed.

Corollary sys_journal_reject_is_core : forall ops reserve maxfill u s evs pre e post g,
  jrun (init_sys reserve maxfill) ops = Ok (s, evs) ->
  journal_of u evs = pre ++ e :: post -> Gen.grun Gen.g0 pre = Some g -> Gen.gstep g e = None ->
  core_event e = true.
Proof.
  intros ops reserve maxfill u s evs pre e post g H E Hp He.
  pose proof (sys_journal_first_reject _ _ _ u _ _ H) as HM. rewrite E, lrun_app in HM.
  apply lrun_grun in Hp. rewrite Hp in HM. cbn [lrun] in HM. unfold lstep in HM. rewrite He in HM.
  destruct (core_event e); [reflexivity | contradiction].
Qed.

Definition core_records_accepted (u : N) (evs : list Event.Event) : bool :=
  match lrun Gen.g0 (journal_of u evs) with LCore => false | _ => true end.

Definition bridge_rel_job (s : sys) (g : Gen.G) : Prop := RelJ (s_hq s) g.

Theorem sys_journal_producible_partial : forall ops reserve maxfill u s evs,
  jrun (init_sys reserve maxfill) ops = Ok (s, evs) ->
  core_records_accepted u evs = true ->
  exists g, Gen.grun Gen.g0 (journal_of u evs) = Some g /\ bridge_rel_job s g.
Proof.
  intros ops reserve maxfill u s evs H Hc.
  pose proof (sys_journal_first_reject _ _ _ u _ _ H) as HM. unfold core_records_accepted in Hc.
  destruct (lrun Gen.g0 (journal_of u evs)) as [g| |] eqn:E; [|discriminate | contradiction].
  exists g. split; [apply lrun_grun; exact E | exact HM].
Qed.

(** Executable full relation: job layer exact (waiting / running distinguished), connected
    workers, id counters, and per task of the core: running on the root of the last start with
    its instance id, or waiting with a larger instance id. *)
Definition st_exact_b (v : jstate) (x : Gen.gstate) : bool :=
  match v, x with
  | JW, Gen.GWaiting | JR, Gen.GRunning | JF, Gen.GFinished | JX, Gen.GFailed | JC, Gen.GCanceled | JA, Gen.GAborted => true
  | _, _ => false
  end.
Definition job_exact_b (jb : job) (gj : Gen.GJob) : bool :=
  Bool.eqb (j_open jb) (Gen.gj_open gj)
  && N.eqb (N.of_nat (length (j_tasks jb))) (N.of_nat (length (Gen.gj_tasks gj)))
  && forallb (fun kv => match Event.lookup (fst kv) (Gen.gj_tasks gj) with
                        | Some x => st_exact_b (snd kv) (Gen.gt_state x) | None => false end) (j_tasks jb).
Definition jobs_exact_b (s : sys) (g : Gen.G) : bool :=
  forallb (fun jb => match Event.lookup (j_id jb) (Gen.g_jobs g) with
                     | Some gj => negb (j_completed jb) && job_exact_b jb gj
                     | None => j_completed jb end) (h_jobs (s_hq s))
  && forallb (fun kv => match find_job (h_jobs (s_hq s)) (fst kv) with
                        | Some jb => negb (j_completed jb)
                        | None => Gen.job_terminated (snd kv) end) (Gen.g_jobs g).
Definition workers_exact_b (s : sys) (g : Gen.G) : bool :=
  forallb (fun w => Event.memN (w_id w) (Gen.g_workers g)) (c_workers (s_core s))
  && forallb (fun w => match find_worker (c_workers (s_core s)) w with Some _ => true | None => false end) (Gen.g_workers g).
Definition ids_exact_b (s : sys) (g : Gen.G) : bool :=
  N.eqb (Gen.g_max_job g + 1) (h_counter (s_hq s)) && N.eqb (Gen.g_max_worker g) (c_wcounter (s_core s)).
Definition gtask_of (g : Gen.G) (t : tid) : option Gen.GTask :=
  match Event.lookup (fst t) (Gen.g_jobs g) with
  | Some gj => Event.lookup (snd t) (Gen.gj_tasks gj)
  | None => None
  end.
Definition core_run_b (ct : task) (x : Gen.GTask) : bool :=
  match t_state ct with
  | Running w _ =>
      st_exact_b JR (Gen.gt_state x) && match Gen.gt_ws x with r :: _ => N.eqb r w | [] => false end
      && match Gen.gt_last x with Some l => N.eqb l (t_inst ct) | None => false end
  | RunningMN (w :: _) =>
      match Gen.gt_state x with
      | Gen.GRunning => match Gen.gt_ws x with r :: _ => N.eqb r w | [] => false end
                        && match Gen.gt_last x with Some l => N.eqb l (t_inst ct) | None => false end
      | Gen.GWaiting => Gen.inst_ok (Gen.gt_last x) (t_inst ct)
      | _ => false
      end
  | _ => st_exact_b JW (Gen.gt_state x) && Gen.inst_ok (Gen.gt_last x) (t_inst ct)
  end.
Definition core_exact_b (s : sys) (g : Gen.G) : bool :=
  forallb (fun ct => match gtask_of g (t_id ct) with Some x => core_run_b ct x | None => false end) (c_tasks (s_core s)).
Definition crash_exact_b (s : sys) (g : Gen.G) : bool :=
  forallb (fun ct => match gtask_of g (t_id ct) with Some x => N.eqb (t_crash ct) (Gen.gt_crash x) | None => false end) (c_tasks (s_core s)).

Definition bridge_ok (s : sys) (g : Gen.G) : bool :=
  jobs_exact_b s g && workers_exact_b s g && ids_exact_b s g && core_exact_b s g.

(** OPEN: true on every history evaluated ([BridgeCor]), not proved. *)
Definition sys_journal_producible_full : Prop := forall ops reserve maxfill u s evs,
  jrun (init_sys reserve maxfill) ops = Ok (s, evs) ->
  exists g, Gen.grun Gen.g0 (journal_of u evs) = Some g /\ bridge_ok s g = true.

(** The crash-counter clause of the intended [bridge_rel] ("crash counter of a task in the core =
    [gt_crash]") is FALSE for a multi-node task whose root worker is lost before its start was
    reported: see [BridgeCor.crash_link_refuted]. *)
Definition crash_link_full : Prop := forall ops reserve maxfill u s evs g,
  jrun (init_sys reserve maxfill) ops = Ok (s, evs) -> Gen.grun Gen.g0 (journal_of u evs) = Some g -> crash_exact_b s g = true.

Print Assumptions sys_journal_first_reject.
Print Assumptions sys_journal_producible_partial.
