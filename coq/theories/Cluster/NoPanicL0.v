(** The worker processes and the workers of the core correspond ([PW], InvProcsDef.v) in EVERY
    reachable state: only [on_new_worker] adds a worker and a process (same new id), only
    [on_remove_worker] removes both; every other function of the model updates existing workers /
    processes in place.  No hypothesis on the history is needed: the sortedness of the worker map
    is part of the inductive invariant. *)
From HQ Require Import Base.Prelude Cluster.Types Cluster.Core Cluster.Reactor Cluster.Worker Cluster.Server Cluster.Sys Cluster.ProofsStep Cluster.InvWBase Cluster.InvWCore Cluster.InvProcsDef.
From HQ Require Import Cluster.ReactSplit.
From HQ Require Import Cluster.RejHyp Cluster.StepShape.
From HQ Require Import Cluster.ModelFacts.
From Coq Require Import ZArith Lia Sorting.Sorted.
Local Open Scope N_scope.

Arguments N.add : simpl never.
Arguments N.sub : simpl never.

Definition wids (c : core) : list N := map w_id (c_workers c).
Definition pids (s : st) : list N := map p_id (s_procs (fst s)).
Definition WS (c : core) : Prop := StronglySorted N.lt (wids c).
Definition PS (s : st) : Prop := StronglySorted N.lt (pids s).

Lemma WS_eq c c' : wids c' = wids c -> WS c -> WS c'.
Proof. unfold WS. intros ->. auto. Qed.
Lemma PS_eq s s' : pids s' = pids s -> PS s -> PS s'.
Proof. unfold PS. intros ->. auto. Qed.

Lemma set_worker_same ws x : wsorted ws -> In (w_id x) (map w_id ws) -> map w_id (set_worker ws x) = map w_id ws.
Proof.
  unfold wsorted. induction ws as [|h r IH]; cbn [set_worker map In]; intros Hs Hin; [destruct Hin|].
  inversion Hs as [|? ? Hs' Hall]; subst.
  destruct (N.eqb (w_id x) (w_id h)) eqn:E1.
  - apply N.eqb_eq in E1. cbn [map]. rewrite E1. reflexivity.
  - apply N.eqb_neq in E1. destruct Hin as [Hin|Hin]; [congruence|].
    rewrite Forall_forall in Hall. pose proof (Hall _ Hin) as Hlt.
    destruct (N.ltb (w_id x) (w_id h)) eqn:E2; [apply N.ltb_lt in E2; lia|].
    cbn [map]. f_equal. apply IH; assumption.
Qed.

Lemma find_worker_in ws w wk : find_worker ws w = Some wk -> In w (map w_id ws).
Proof. intros H. destruct (find_worker_some _ _ _ H) as [Hin <-]. apply in_map. exact Hin. Qed.

Lemma set_worker_keep ws w wk wk' :
  wsorted ws -> w_id wk' = w_id wk -> find_worker ws w = Some wk -> map w_id (set_worker ws wk') = map w_id ws.
Proof.
  intros Hs Hi Hg. apply set_worker_same; [exact Hs|].
  rewrite Hi. destruct (find_worker_some _ _ _ Hg) as [Hin _]. apply in_map. exact Hin.
Qed.

Definition psorted (ps : list wproc) : Prop := StronglySorted N.lt (map p_id ps).

Lemma set_proc_same ps x : psorted ps -> In (p_id x) (map p_id ps) -> map p_id (set_proc ps x) = map p_id ps.
Proof.
  unfold psorted. induction ps as [|h r IH]; cbn [set_proc map In]; intros Hs Hin; [destruct Hin|].
  inversion Hs as [|? ? Hs' Hall]; subst.
  destruct (N.eqb (p_id x) (p_id h)) eqn:E1.
  - apply N.eqb_eq in E1. cbn [map]. rewrite E1. reflexivity.
  - apply N.eqb_neq in E1. destruct Hin as [Hin|Hin]; [congruence|].
    rewrite Forall_forall in Hall. pose proof (Hall _ Hin) as Hlt.
    destruct (N.ltb (p_id x) (p_id h)) eqn:E2; [apply N.ltb_lt in E2; lia|].
    cbn [map]. f_equal. apply IH; assumption.
Qed.

Lemma set_proc_keep ps w p p' :
  psorted ps -> p_id p' = p_id p -> find_proc ps w = Some p -> map p_id (set_proc ps p') = map p_id ps.
Proof.
  intros Hs Hi Hf. apply set_proc_same; [exact Hs|]. rewrite Hi.
  destruct (find_proc_some _ _ _ Hf) as [Hin _]. apply in_map. exact Hin.
Qed.

Lemma set_both ps : forall ws x y, map p_id ps = map w_id ws -> p_id x = w_id y ->
  map p_id (set_proc ps x) = map w_id (set_worker ws y).
Proof.
  induction ps as [|h r IH]; intros [|k ws] x y E Hi; cbn [map] in E; try discriminate; cbn [set_proc set_worker map].
  - rewrite Hi. reflexivity.
  - inversion E as [[E1 E2]]. rewrite Hi, E1.
    destruct (N.eqb (w_id y) (w_id k)); [cbn [map]; rewrite Hi, E2; reflexivity|].
    destruct (N.ltb (w_id y) (w_id k)); cbn [map]; [rewrite Hi, E1, E2; reflexivity|].
    rewrite E1. f_equal. apply IH; assumption.
Qed.

Lemma del_both ps : forall ws w, map p_id ps = map w_id ws -> map p_id (del_proc ps w) = map w_id (del_worker ws w).
Proof.
  induction ps as [|h r IH]; intros [|k ws] w E; cbn [map] in E; try discriminate; cbn [del_proc del_worker map]; [reflexivity|].
  inversion E as [[E1 E2]]. rewrite E1. destruct (N.eqb w (w_id k)); [exact E2|]. cbn [map]. rewrite E1. f_equal. apply IH. exact E2.
Qed.

Lemma remove_sn_task_id wk id rq wk' : remove_sn_task wk id rq = Ok wk' -> w_id wk' = w_id wk.
Proof. intros H. exact (proj1 (remove_sn_task_spec _ _ _ _ H)). Qed.
Lemma remove_prefill_task_id wk id wk' : remove_prefill_task wk id = Ok wk' -> w_id wk' = w_id wk.
Proof. intros H. exact (proj1 (remove_prefill_task_spec _ _ _ H)). Qed.
Lemma insert_sn_task_id wk id rq wk' : insert_sn_task wk id rq = Ok wk' -> w_id wk' = w_id wk.
Proof. intros H. exact (proj1 (insert_sn_task_spec _ _ _ _ H)). Qed.
Lemma insert_prefill_task_id wk id wk' : insert_prefill_task wk id = Ok wk' -> w_id wk' = w_id wk.
Proof. intros H. exact (proj1 (insert_prefill_task_spec _ _ _ H)). Qed.
Lemma task_from_prefilled_to_started_id wk id rq wk' : task_from_prefilled_to_started wk id rq = Ok wk' -> w_id wk' = w_id wk.
Proof.
  unfold task_from_prefilled_to_started. destruct (w_assign wk); [|discriminate].
  destruct (negb _); [discriminate|]. destruct (tid_mem id assigned); [discriminate|]. intros H; inversion H; reflexivity.
Qed.
Lemma set_mn_task_id wk id root wk' : set_mn_task wk id root = Ok wk' -> w_id wk' = w_id wk.
Proof. unfold set_mn_task. destruct (worker_is_free wk); [|discriminate]. intros H; inversion H; reflexivity. Qed.

(** Decompose [H : <monadic computation> = Ok _] along binds and case distinctions. *)
Ltac dec H :=
  repeat first
   [ step_bind H
   | match type of H with
     | (match ?x with _ => _ end) = Ok _ => destruct x eqn:?; try discriminate H
     end ].

Ltac decs :=
  repeat match goal with
  | H : bind _ _ = Ok _ |- _ => step_bind H
  | H : (match ?x with _ => _ end) = Ok _ |- _ => destruct x eqn:?; try discriminate H
  | H : Ok _ = Ok _ |- _ => inversion H; subst; clear H
  end.

Ltac cnorm :=
  cbn [c_workers c_tasks c_queues c_redirects c_rqs c_flag c_wcounter upd_task upd_worker with_tasks with_workers with_queues
       with_redirects with_flag with_rqs with_wcounter core_of st_core with_core with_procs with_hq s_core s_procs s_hq fst snd ask_scheduling emit] in *.

Ltac widt :=
  cbn [w_id reset_mn_task with_assign with_blocked];
  first [ eapply remove_sn_task_id; eassumption | eapply remove_prefill_task_id; eassumption
        | eapply insert_sn_task_id; eassumption | eapply insert_prefill_task_id; eassumption
        | eapply task_from_prefilled_to_started_id; eassumption | eapply set_mn_task_id; eassumption
        | reflexivity ].

Ltac wsort := repeat apply set_worker_sorted; assumption.

(** Goal [wids X = wids c] where [X] is [c] with updates of workers that were looked up. *)
Ltac wsolve :=
  unfold wids, WS, wids in *; cnorm;
  repeat match goal with H : get_worker _ _ = Ok _ |- _ => apply get_worker_find in H end;
  repeat (erewrite set_worker_keep; [ | wsort | widt | eassumption ]);
  try reflexivity; try assumption.

(** Recursive call / sub-call [H] of a function with frame lemma [L] on a state [X]. *)
Ltac wcall L H Hs :=
  eapply eq_trans; [eapply L; [ | exact H]; eapply WS_eq; [ | exact Hs] | ]; wsolve.

Lemma retract_states_wids ids : forall c acc c' acc',
  WS c -> retract_states c ids acc = Ok (c', acc') -> wids c' = wids c.
Proof.
  induction ids as [|id r IH]; cbn [retract_states]; intros c acc c' acc' Hs H; [congruence|].
  dec H. wcall IH H Hs.
Qed.

Lemma try_remove_redirection_wids c t c' : WS c -> try_remove_redirection c t = Ok c' -> wids c' = wids c.
Proof. unfold try_remove_redirection. intros Hs H. dec H; inversion H; subst; wsolve. Qed.

Lemma reset_mn_workers_wids ws : forall c id c', WS c -> reset_mn_workers c ws id = Ok c' -> wids c' = wids c.
Proof.
  induction ws as [|w r IH]; cbn [reset_mn_workers]; intros c id c' Hs H; [congruence|].
  dec H. wcall IH H Hs.
Qed.

Lemma reset_mn_all_wids ws : forall c c', WS c -> reset_mn_all c ws = Ok c' -> wids c' = wids c.
Proof.
  induction ws as [|w r IH]; cbn [reset_mn_all]; intros c c' Hs H; [congruence|].
  dec H. wcall IH H Hs.
Qed.

Lemma remove_task_wids c id c' stt : WS c -> remove_task c id = Ok (c', stt) -> wids c' = wids c.
Proof. unfold remove_task. intros Hs H. decs; wsolve. Qed.

Lemma remove_tasks_batched_wids ids : forall c c', WS c -> remove_tasks_batched c ids = Ok c' -> wids c' = wids c.
Proof.
  induction ids as [|id r IH]; cbn [remove_tasks_batched]; intros c c' Hs H; [congruence|].
  dec H. pose proof (remove_task_wids _ _ _ _ Hs E) as E1.
  rewrite <- E1. eapply IH; [eapply WS_eq; [exact E1 | exact Hs] | exact H].
Qed.

Lemma remove_waiting_consumers_wids l : forall c c', WS c -> remove_waiting_consumers c l = Ok c' -> wids c' = wids c.
Proof.
  induction l as [|id r IH]; cbn [remove_waiting_consumers]; intros c c' Hs H; [congruence|].
  dec H. pose proof (remove_task_wids _ _ _ _ Hs E) as E1.
  rewrite <- E1. eapply IH; [eapply WS_eq; [exact E1 | exact Hs] | exact H].
Qed.

Lemma wake_consumers_wids csm : forall c ret c' ret', WS c -> wake_consumers c csm ret = Ok (c', ret') -> wids c' = wids c.
Proof.
  induction csm as [|x r IH]; cbn [wake_consumers]; intros c ret c' ret' Hs H; [congruence|].
  dec H; wcall IH H Hs.
Qed.

Lemma retract_response_states_wids ids : forall c w acc c' acc',
  WS c -> retract_response_states c w ids acc = (c', acc') -> wids c' = wids c.
Proof.
  induction ids as [|id r IH]; cbn [retract_response_states]; intros c w acc c' acc' Hs H; [congruence|].
  repeat match type of H with (match ?x with _ => _ end) = _ => destruct x eqn:? end; wcall IH H Hs.
Qed.

Lemma lost_prefilled_wids l : forall c c', WS c -> lost_prefilled c l = Ok c' -> wids c' = wids c.
Proof.
  induction l as [|id r IH]; cbn [lost_prefilled]; intros c c' Hs H; [congruence|].
  dec H. wcall IH H Hs.
Qed.

Lemma lost_assigned_wids l : forall c running ret c' running' ret',
  WS c -> lost_assigned c l running ret = Ok (c', running', ret') -> wids c' = wids c.
Proof.
  induction l as [|id r IH]; cbn [lost_assigned]; intros c running ret c' running' ret' Hs H; [congruence|].
  apply bind_ok in H as (t & Ht & H). apply bind_ok in H as ([[c1 t1] running1] & H1 & H).
  apply bind_ok in H as ([qs rt] & _ & H).
  assert (E1 : wids c1 = wids c) by (dec H1; inversion H1; subst; reflexivity).
  wcall IH H Hs.
Qed.

Lemma register_deps_wids deps : forall c id kept count c' kept' count',
  register_deps c id deps kept count = (c', kept', count') -> wids c' = wids c.
Proof.
  induction deps as [|d r IH]; cbn [register_deps]; intros c id kept count c' kept' count' H; [congruence|].
  destruct (find_task (c_tasks c) d); [|eapply IH; exact H]. rewrite (IH _ _ _ _ _ _ _ H). reflexivity.
Qed.

Lemma add_new_tasks_wids ts : forall c ret c' ret', WS c -> add_new_tasks c ts ret = Ok (c', ret') -> wids c' = wids c.
Proof.
  induction ts as [|t r IH]; cbn [add_new_tasks]; intros c ret c' ret' Hs H; [congruence|].
  destruct (register_deps c (t_id t) (t_deps t) [] 0) as [[c1 kept] count] eqn:Er.
  pose proof (register_deps_wids _ _ _ _ _ _ _ _ Er) as E1.
  apply bind_ok in H as ([c2 rt] & H2 & H).
  assert (E2 : wids c2 = wids c) by (dec H2; inversion H2; subst; exact E1).
  destruct (find_task (c_tasks c2) (t_id t)); [discriminate|].
  wcall IH H Hs.
Qed.

Lemma map_one_wids c m id w v rqres c' m' : WS c -> map_one c m id w v rqres = Ok (c', m') -> wids c' = wids c.
Proof. unfold map_one. intros Hs H. dec H; inversion H; subst; wsolve. Qed.

(** "The worker ids stay, given that they are sorted" as a relation between cores: in this form it
    goes through the loops of a scheduling round (ReactSplit.v). *)
Definition wids_kept (c c' : core) : Prop := WS c -> wids c' = wids c.
Lemma wids_kept_trans c1 c2 c3 : wids_kept c1 c2 -> wids_kept c2 c3 -> wids_kept c1 c3.
Proof. intros A B Hs. pose proof (A Hs) as E1. rewrite <- E1. apply B. eapply WS_eq; [exact E1 | exact Hs]. Qed.

Lemma map_sn_wids sol l : forall c m c' m', WS c -> map_sn c m sol l = Ok (c', m') -> wids c' = wids c.
Proof.
  intros c m c' m' Hs H.
  exact (map_sn_lift wids_kept (fun _ _ => eq_refl) wids_kept_trans (fun _ _ _ => eq_refl)
           (fun _ _ _ _ _ _ _ _ H1 Hs0 => map_one_wids _ _ _ _ _ _ _ _ Hs0 H1) sol l c m c' m' H Hs).
Qed.

Lemma set_mn_workers_wids l : forall c id first c', WS c -> set_mn_workers c id l first = Ok c' -> wids c' = wids c.
Proof.
  induction l as [|w r IH]; cbn [set_mn_workers]; intros c id first c' Hs H; [congruence|].
  dec H. wcall IH H Hs.
Qed.

Lemma map_mn_sets_wids sets : forall c rq mn c' mn', WS c -> map_mn_sets c rq mn sets = Ok (c', mn') -> wids c' = wids c.
Proof.
  induction sets as [|ws r IH]; cbn [map_mn_sets]; intros c rq mn c' mn' Hs H; [congruence|].
  apply bind_ok in H as (q & _ & H). destruct (q_take_one q) as [[id q']|]; [|discriminate].
  apply bind_ok in H as (c2 & H2 & H). apply bind_ok in H as (t & Ht & H).
  destruct (t_state t) as [n| | | | | |]; try discriminate. destruct n; [|discriminate].
  pose proof (set_mn_workers_wids _ (with_queues c (set_queue (c_queues c) (N.to_nat rq) q')) _ _ _ Hs H2) as E2.
  change (wids c2 = wids c) in E2.
  assert (E3 : wids (upd_task c2 (with_state t (RunningMN ws))) = wids c) by exact E2.
  rewrite <- E3. eapply IH; [eapply WS_eq; [exact E3 | exact Hs] | exact H].
Qed.

Lemma map_mn_wids l : forall c mn c' mn', WS c -> map_mn c mn l = Ok (c', mn') -> wids c' = wids c.
Proof.
  intros c mn c' mn' Hs H.
  exact (map_mn_lift wids_kept (fun _ _ => eq_refl) wids_kept_trans
           (fun _ _ _ _ _ _ H1 Hs0 => map_mn_sets_wids _ _ _ _ _ _ Hs0 H1) l c mn c' mn' H Hs).
Qed.

Lemma prefill_mark_wids l : forall c w c', WS c -> prefill_mark c w l = Ok c' -> wids c' = wids c.
Proof.
  induction l as [|id r IH]; cbn [prefill_mark]; intros c w c' Hs H; [congruence|].
  dec H. wcall IH H Hs.
Qed.

Lemma prefill_queues_wids n : forall c m worder qi top c' m',
  WS c -> prefill_queues c m worder qi n top = Ok (c', m') -> wids c' = wids c.
Proof.
  intros c m worder qi top c' m' Hs H.
  exact (prefill_queues_lift wids_kept (fun _ _ => eq_refl) wids_kept_trans (fun _ _ _ => eq_refl)
           (fun _ _ _ _ H1 Hs0 => prefill_mark_wids _ _ _ _ Hs0 H1) n c m worder qi top c' m' H Hs).
Qed.

Definition sids (s : st) : list N * list N := (wids (core_of s), pids s).
Definition SI (s : st) : Prop := WS (core_of s) /\ PS s.

Lemma SI_eq s s' : sids s' = sids s -> SI s -> SI s'.
Proof. unfold sids, SI. intros E [H1 H2]. inversion E as [[E1 E2]]. split; [eapply WS_eq; eassumption | eapply PS_eq; eassumption]. Qed.

Lemma sids_st_core s c : wids c = wids (core_of s) -> sids (st_core s c) = sids s.
Proof. unfold sids. cbn. intros ->. reflexivity. Qed.
Definition CP (s : st) : core * list wproc := (core_of s, s_procs (fst s)).
Lemma sids_CP s s' : CP s' = CP s -> sids s' = sids s.
Proof. unfold CP, sids, pids. intros E. inversion E as [[E1 E2]]. rewrite E1, E2. reflexivity. Qed.

Lemma send_worker_sids s w m s' : SI s -> send_worker s w m = Ok s' -> sids s' = sids s.
Proof.
  unfold send_worker. intros [_ Hp] H. destruct (find_proc _ w) as [p|] eqn:Ef; [|discriminate]. inversion H; subst.
  unfold sids, pids. cbn. f_equal. eapply set_proc_keep; [exact Hp | | exact Ef]. reflexivity.
Qed.

Lemma broadcast_sids s m : sids (broadcast s m) = sids s.
Proof. unfold sids, pids, broadcast. cbn. rewrite map_map. reflexivity. Qed.

Lemma send_all_sids msgs : forall s s', SI s -> send_all s msgs = Ok s' -> sids s' = sids s.
Proof.
  induction msgs as [|[w m] r IH]; cbn [send_all]; intros s s' Hs H; [congruence|].
  apply bind_ok in H as (s1 & H1 & H). pose proof (send_worker_sids _ _ _ _ Hs H1) as E1.
  rewrite <- E1. eapply IH; [eapply SI_eq; eassumption | exact H].
Qed.

Lemma SI_st_core s c : wids c = wids (core_of s) -> SI s -> SI (st_core s c).
Proof. intros E. apply SI_eq. apply sids_st_core. exact E. Qed.

Lemma process_retracted_sids s r s' : SI s -> process_retracted s r = Ok s' -> sids s' = sids s.
Proof.
  unfold process_retracted. intros Hs H. destruct r; [congruence|].
  apply bind_ok in H as ([c' groups] & H1 & H).
  pose proof (retract_states_wids _ _ _ _ _ (proj1 Hs) H1) as E1.
  rewrite (send_all_sids _ _ _ (SI_st_core _ _ E1 Hs) H). apply sids_st_core. exact E1.
Qed.

Ltac cpt := intros H; decs; reflexivity.
Lemma check_termination_CP s jid s' : check_termination s jid = Ok s' -> CP s' = CP s.
Proof. unfold check_termination. cpt. Qed.
Lemma process_task_started_CP s t i ws rv s' : process_task_started s t i ws rv = Ok s' -> CP s' = CP s.
Proof. unfold process_task_started. cpt. Qed.
Lemma process_task_finished_CP s t s' : process_task_finished s t = Ok s' -> CP s' = CP s.
Proof.
  unfold process_task_finished. intros H. dec H; try discriminate.
  rewrite (check_termination_CP _ _ _ H). reflexivity.
Qed.
Lemma set_waiting_state_CP s t s' : set_waiting_state s t = Ok s' -> CP s' = CP s.
Proof. unfold set_waiting_state. cpt. Qed.
Lemma abort_tasks_CP s jid ids s' : abort_tasks s jid ids = Ok s' -> CP s' = CP s.
Proof.
  unfold abort_tasks. intros H. destruct ids; [congruence|]. dec H.
  rewrite (check_termination_CP _ _ _ H). reflexivity.
Qed.
Lemma set_cancel_state_CP s jid ids s' : set_cancel_state s jid ids = Ok s' -> CP s' = CP s.
Proof.
  unfold set_cancel_state. intros H. destruct ids; [congruence|]. dec H.
  rewrite (check_termination_CP _ _ _ H). reflexivity.
Qed.
Lemma process_task_failed_CP s t ab k s' ids : process_task_failed s t ab k = Ok (s', ids) -> CP s' = CP s.
Proof.
  unfold process_task_failed. intros H.
  apply bind_ok in H as (s1 & H1 & H). apply bind_ok in H as (j & _ & H).
  apply bind_ok in H as (j1 & _ & H). apply bind_ok in H as (s2 & H2 & H).
  apply bind_ok in H as (j2 & _ & H).
  assert (E2 : CP s2 = CP s) by (rewrite (check_termination_CP _ _ _ H2); cbn; exact (abort_tasks_CP _ _ _ _ H1)).
  dec H; inversion H; subst; try exact E2.
  match goal with X : abort_tasks _ _ _ = Ok _ |- _ => rewrite (abort_tasks_CP _ _ _ _ X) end. exact E2.
Qed.
Lemma set_waiting_all_CP ts : forall s s', set_waiting_all s ts = Ok s' -> CP s' = CP s.
Proof.
  induction ts as [|t r IH]; cbn [set_waiting_all]; intros s s' H; [congruence|].
  apply bind_ok in H as (s1 & H1 & H). rewrite (IH _ _ H). eapply set_waiting_state_CP; exact H1.
Qed.
Lemma process_worker_lost_CP s w running reason s' : process_worker_lost s w running reason = Ok s' -> CP s' = CP s.
Proof. unfold process_worker_lost. intros H. dec H. inversion H; subst.
  match goal with X : set_waiting_all _ _ = Ok _ |- _ => rewrite <- (set_waiting_all_CP _ _ _ X) end. reflexivity.
Qed.
Lemma submit_ok_resp_CP s jid s' : submit_ok_resp s jid = Ok s' -> CP s' = CP s.
Proof. unfold submit_ok_resp. cpt. Qed.

Ltac wfin Hw := first
  [ match goal with X : try_remove_redirection _ _ = Ok _ |- _ => exact (try_remove_redirection_wids _ _ _ Hw X) end
  | match goal with X : reset_mn_all _ _ = Ok _ |- _ => exact (reset_mn_all_wids _ _ _ Hw X) end
  | match goal with X : reset_mn_workers _ _ _ = Ok _ |- _ => exact (reset_mn_workers_wids _ _ _ _ Hw X) end
  | solve [wsolve] ].

Definition Rc (c c' : core) : Prop := WS c -> wids c' = wids c.
Definition R (s s' : st) : Prop := SI s -> sids s' = sids s.

Lemma Rc_refl c : Rc c c.
Proof. intros _. reflexivity. Qed.
Lemma Rc_trans a b c : Rc a b -> Rc b c -> Rc a c.
Proof. intros H1 H2 Hs. rewrite (H2 (WS_eq _ _ (H1 Hs) Hs)). exact (H1 Hs). Qed.
Lemma Rc_same a b : c_workers b = c_workers a -> Rc a b.
Proof. intros E _. unfold wids. rewrite E. reflexivity. Qed.
Lemma R_refl s : R s s.
Proof. intros _. reflexivity. Qed.
Lemma R_trans a b c : R a b -> R b c -> R a c.
Proof. intros H1 H2 Hs. rewrite (H2 (SI_eq _ _ (H1 Hs) Hs)). exact (H1 Hs). Qed.
Lemma R_core s c : Rc (core_of s) c -> R s (st_core s c).
Proof. intros H Hs. apply sids_st_core. exact (H (proj1 Hs)). Qed.
Lemma R_CP s s' : CP s' = CP s -> R s s'.
Proof. intros E _. apply sids_CP. exact E. Qed.
Lemma R_eq s s' : sids s' = sids s -> R s s'.
Proof. intros E _. exact E. Qed.

Lemma cancel_release_R ids : forall s u r s1 u' r', cancel_release s ids u r = Ok (s1, u', r') -> R s s1.
Proof.
  induction ids as [|id rest IH]; cbn [cancel_release]; intros s u r s1 u' r' H; [inversion H; subst; apply R_refl|].
  destruct (find_task _ id) as [t|]; [|eapply IH; eassumption].
  dec H; (eapply R_trans; [|eapply IH; exact H]); try (apply R_eq; reflexivity);
    match goal with |- R ?s (ask_scheduling (st_core ?s ?c)) => change (R s (st_core s (with_flag c true)))
                  | _ => idtac end; apply R_core; intros Hw.
  all: wfin Hw.
Qed.

Lemma send_all_R msgs s s' : send_all s msgs = Ok s' -> R s s'.
Proof. intros H Hs. eapply send_all_sids; eassumption. Qed.
Lemma send_worker_R s w m s' : send_worker s w m = Ok s' -> R s s'.
Proof. intros H Hs. eapply send_worker_sids; eassumption. Qed.
Lemma process_retracted_R s r s' : process_retracted s r = Ok s' -> R s s'.
Proof. intros H Hs. eapply process_retracted_sids; eassumption. Qed.

Lemma on_cancel_tasks_R s ids s' : on_cancel_tasks s ids = Ok s' -> R s s'.
Proof.
  unfold on_cancel_tasks. intros H.
  apply bind_ok in H as ([[s1 u] r] & H1 & H). apply bind_ok in H as (c' & H2 & H).
  eapply R_trans; [eapply cancel_release_R; exact H1|].
  eapply R_trans; [|eapply send_all_R; exact H].
  apply R_core. intros Hw. eapply remove_tasks_batched_wids; eassumption.
Qed.

Lemma task_failed_R s w id k s' : task_failed s w id k = Ok s' -> R s s'.
Proof.
  unfold task_failed. intros H. cbv zeta in H. destruct (find_task _ id) as [t|]; [|inversion H; subst; apply R_refl].
  apply bind_ok in H as (rq & _ & H). apply bind_ok in H as (c1 & H1 & H).
  apply bind_ok in H as (csm & _ & H). apply bind_ok in H as (c2 & H2 & H).
  apply bind_ok in H as ([c3 stt] & H3 & H). apply bind_ok in H as (u & _ & H).
  apply bind_ok in H as ([s1 cids] & H4 & H).
  assert (R1 : Rc (core_of s) c1) by (intros Hw; dec H1; try (match type of H1 with Ok _ = Ok _ => inversion H1; subst end); try reflexivity; wfin Hw).
  assert (R2 : Rc c1 c2) by (intros Hw; eapply remove_waiting_consumers_wids; eassumption).
  assert (R3 : Rc c2 c3) by (intros Hw; eapply remove_task_wids; eassumption).
  assert (R4 : R s s1).
  { eapply R_trans; [apply R_core; exact (Rc_trans _ _ _ (Rc_trans _ _ _ R1 R2) R3)|].
    apply R_CP. eapply process_task_failed_CP; exact H4. }
  destruct cids; [inversion H; subst; exact R4|].
  eapply R_trans; [exact R4 | eapply on_cancel_tasks_R; exact H].
Qed.

Lemma task_finished_R s w id s' b : task_finished s w id = Ok (s', b) -> R s s'.
Proof.
  unfold task_finished. intros H. cbv zeta in H. destruct (find_task _ id) as [t|]; [|inversion H; subst; apply R_refl].
  apply bind_ok in H as (rq & _ & H). apply bind_ok in H as (c1 & H1 & H).
  apply bind_ok in H as (s1 & H2 & H). apply bind_ok in H as ([c3 ret] & H3 & H).
  apply bind_ok in H as (s2 & H4 & H). apply bind_ok in H as ([c4 stt] & H5 & H).
  destruct stt; try discriminate. inversion H; subst.
  assert (R1 : Rc (core_of s) c1) by (intros Hw; dec H1; try (match type of H1 with Ok _ = Ok _ => inversion H1; subst end); try reflexivity; wfin Hw).
  eapply R_trans; [apply R_core; eapply Rc_trans; [exact R1 | apply (Rc_same c1 (upd_task c1 (with_state t Finished))); reflexivity]|].
  eapply R_trans; [apply R_CP; eapply process_task_finished_CP; exact H2|].
  eapply R_trans; [apply R_core; intros Hw; eapply wake_consumers_wids; eassumption|].
  eapply R_trans; [eapply process_retracted_R; exact H4|].
  apply R_core; intros Hw; eapply remove_task_wids; eassumption.
Qed.

Lemma task_running_R s w id rv s' b : task_running s w id rv = Ok (s', b) -> R s s'.
Proof.
  unfold task_running. intros H. cbv zeta in H. destruct (find_task _ id) as [t|]; [|inversion H; subst; apply R_refl].
  apply bind_ok in H as (rq & _ & H). apply bind_ok in H as ([s1 ws] & H1 & H).
  apply bind_ok in H as (s2 & H2 & H). inversion H; subst.
  eapply R_trans; [|apply R_CP; eapply process_task_started_CP; exact H2].
  dec H1; inversion H1; subst; try apply R_refl;
    match goal with |- R ?s (st_core (ask_scheduling ?s) ?c) => change (R s (st_core s c)) | _ => idtac end;
    apply R_core; intros Hw; try solve [wsolve].
  assert (Hw0 : WS (core_of (ask_scheduling s))) by exact Hw.
  match goal with X : try_remove_redirection _ _ = Ok _ |- _ => pose proof (try_remove_redirection_wids _ _ _ Hw0 X) as F1 end.
  assert (Hw1 : WS a) by (eapply WS_eq; [exact F1 | exact Hw0]).
  transitivity (wids a); [clear Hw Hw0; wsolve | exact F1].
Qed.

Lemma requeue_R s t c1 s' b :
  Rc (core_of s) c1 ->
  (do (qs, ret) <- add_ready_task (c_queues c1) (with_state t (Waiting 0));
   do s'' <- process_retracted (st_core s (with_queues (upd_task c1 (with_state t (Waiting 0))) qs)) ret;
   Ok (s'', true)) = Ok (s', b) -> R s s'.
Proof.
  intros R1 Hx. apply bind_ok in Hx as ([qs ret] & _ & Hx). apply bind_ok in Hx as (s2 & H2 & Hx).
  inversion Hx; subst.
  eapply R_trans; [|eapply process_retracted_R; exact H2].
  apply R_core. eapply Rc_trans; [exact R1 | apply Rc_same; reflexivity].
Qed.

Lemma task_reject_R s w id rv s' b : task_reject s w id rv = Ok (s', b) -> R s s'.
Proof.
  unfold task_reject. intros H. cbv zeta in H. destruct (find_task _ id) as [t|]; [|inversion H; subst; apply R_refl].
  apply bind_ok in H as (wk & Hwk & H). apply bind_ok in H as (rq & _ & H).
  apply bind_ok in H as ([c1 cont] & Hr & H).
  set (wk1 := match rv with Some v => if nn_mem (t_rq t, v) (w_blocked wk) then wk else with_blocked wk (nn_insert (t_rq t, v) (w_blocked wk)) | None => wk end) in *.
  assert (Hi : w_id wk1 = w_id wk) by (subst wk1; destruct rv as [v|]; [destruct (nn_mem _ _)|]; reflexivity).
  assert (R0 : Rc (core_of s) (upd_worker (core_of s) wk1)).
  { intros Hw. unfold wids, WS, wids in *. cnorm. eapply set_worker_keep; [exact Hw | exact Hi | apply get_worker_find; exact Hwk]. }
  assert (Hg1 : find_worker (c_workers (upd_worker (core_of s) wk1)) w = Some wk1).
  { cbn. rewrite find_set_worker. rewrite Hi. destruct (find_worker_some _ _ _ (get_worker_find _ _ _ Hwk)) as [_ ->]. rewrite N.eqb_refl. reflexivity. }
  assert (R1 : Rc (core_of s) c1).
  { eapply Rc_trans; [exact R0|]. intros Hw. clearbody wk1.
    dec Hr; try (match type of Hr with Ok _ = Ok _ => inversion Hr; subst end); try reflexivity;
      unfold wids, WS, wids in *; cnorm; (eapply set_worker_keep; [exact Hw | | exact Hg1]); widt. }
  clearbody wk1.
  destruct (t_state t) eqn:Est; try (eapply requeue_R; eassumption).
  destruct cont.
  - destruct (find_redirect (c_redirects c1) id) as [[target rvt]|].
    + apply bind_ok in H as (s1 & H1 & H). inversion H; subst.
      eapply R_trans; [|eapply send_worker_R; exact H1].
      apply R_core. eapply Rc_trans; [exact R1 | apply Rc_same; reflexivity].
    + eapply requeue_R; eassumption.
  - inversion H; subst. apply R_core. exact R1.
Qed.

Lemma request_enabled_R s w rq rv s' : request_enabled s w rq rv = Ok s' -> R s s'.
Proof.
  unfold request_enabled. intros H. dec H. inversion H; subst. apply R_core. intros Hw. wsolve.
Qed.

Lemma apply_one_R s w u s' n : apply_one s w u = Ok (s', n) -> R s s'.
Proof.
  destruct u; cbn [apply_one]; intros H.
  - eapply task_finished_R; exact H.
  - apply bind_ok in H as (s2 & H2 & H). inversion H; subst. eapply task_failed_R; exact H2.
  - eapply task_running_R; exact H.
  - eapply task_running_R; exact H.
  - eapply task_reject_R; exact H.
  - apply bind_ok in H as (s2 & H2 & H). inversion H; subst. eapply request_enabled_R; exact H2.
Qed.

Lemma apply_updates_R us : forall s w need s' n', apply_updates s w us need = Ok (s', n') -> R s s'.
Proof. exact (apply_updates_rel R R_refl R_trans apply_one_R us). Qed.

Lemma on_task_update_R s w us s' : on_task_update s w us = Ok s' -> R s s'.
Proof. apply (on_task_update_rel R R_refl R_trans apply_one_R). intros x. apply R_eq. reflexivity. Qed.

Lemma send_redirected_R gs : forall s s', send_redirected s gs = Ok s' -> R s s'.
Proof.
  induction gs as [|[target ts] r IH]; cbn [send_redirected]; intros s s' H; [inversion H; subst; apply R_refl|].
  apply bind_ok in H as (cts & _ & H). apply bind_ok in H as (s1 & H1 & H).
  eapply R_trans; [eapply send_worker_R; exact H1 | eapply IH; exact H].
Qed.

Lemma on_retract_response_R s w ids s' : on_retract_response s w ids = Ok s' -> R s s'.
Proof.
  unfold on_retract_response. intros H. destruct (retract_response_states _ w ids []) as [c' groups] eqn:E.
  apply bind_ok in H as (s2 & H & H2).
  assert (R2 : R s s2).
  { eapply R_trans; [|eapply send_redirected_R; exact H].
    apply R_core. intros Hw. eapply retract_response_states_wids; eassumption. }
  destruct (retract_wakes _ _ _ _); inversion H2; subst s'; clear H2; [|exact R2].
  eapply R_trans; [exact R2|]. apply R_eq. reflexivity.
Qed.

Lemma lost_retracting_R l : forall s w s', lost_retracting s w l = Ok s' -> R s s'.
Proof.
  induction l as [|id r IH]; cbn [lost_retracting]; intros s w s' H; [inversion H; subst; apply R_refl|].
  apply bind_ok in H as (t & Ht & H).
  destruct (t_state t); try (eapply IH; eassumption).
  destruct (N.eqb w w0); [|eapply IH; eassumption].
  destruct (find_redirect _ id) as [[target rv]|].
  - apply bind_ok in H as (s1 & H1 & H).
    eapply R_trans; [|eapply IH; exact H]. eapply R_trans; [|eapply send_worker_R; exact H1].
    apply R_core. apply Rc_same. reflexivity.
  - eapply R_trans; [|eapply IH; exact H]. apply R_core. apply Rc_same. reflexivity.
Qed.

Lemma lost_fail_running_R l : forall s reason s', lost_fail_running s reason l = Ok s' -> R s s'.
Proof.
  apply (lost_fail_running_rel R R_refl R_trans).
  - intros s id t _. apply R_core. apply Rc_same. reflexivity.
  - intros s id k s' _ H. eapply task_failed_R; exact H.
Qed.

Lemma on_new_tasks_R s ts s' : on_new_tasks s ts = Ok s' -> R s s'.
Proof.
  unfold on_new_tasks. intros H. destruct ts; [inversion H; subst; apply R_refl|].
  apply bind_ok in H as ([c' ret] & H1 & H). apply bind_ok in H as (s1 & H2 & H). inversion H; subst.
  eapply R_trans; [apply R_core; intros Hw; eapply add_new_tasks_wids; eassumption|].
  eapply R_trans; [eapply process_retracted_R; exact H2 | apply R_eq; reflexivity].
Qed.

Lemma send_mapping_R m : forall s s', send_mapping s m = Ok s' -> R s s'.
Proof.
  induction m as [|u r IH]; cbn [send_mapping]; intros s s' H; [inversion H; subst; apply R_refl|].
  apply bind_ok in H as (s1 & H1 & H). apply bind_ok in H as (cts1 & _ & H).
  apply bind_ok in H as (cts2 & _ & H). apply bind_ok in H as (s2 & H2 & H).
  eapply R_trans; [|eapply IH; exact H].
  eapply R_trans.
  - destruct (wu_retracts u); [inversion H1; subst; apply R_refl | eapply send_worker_R; exact H1].
  - destruct (cts1 ++ cts2); [inversion H2; subst; apply R_refl | eapply send_worker_R; exact H2].
Qed.

Lemma send_mn_R l : forall s s', send_mn s l = Ok s' -> R s s'.
Proof.
  induction l as [|id r IH]; cbn [send_mn]; intros s s' H; [inversion H; subst; apply R_refl|].
  apply bind_ok in H as (t & _ & H). destruct (t_state t); try discriminate. destruct ws; [discriminate|].
  apply bind_ok in H as (s1 & H1 & H).
  eapply R_trans; [eapply send_worker_R; exact H1 | eapply IH; exact H].
Qed.

Lemma run_scheduling_R s sol s' : run_scheduling s sol = Ok s' -> R s s'.
Proof.
  unfold run_scheduling. intros H. cbv zeta in H. destruct (negb (perm_of_set _ _)); [discriminate|].
  apply bind_ok in H as ([c1 m1] & H1 & H).
  apply bind_ok in H as ([c2 mn] & H2 & H).
  apply bind_ok in H as ([c3 m3] & H3 & H).
  apply bind_ok in H as (s1 & H4 & H).
  apply bind_ok in H as (s2 & H5 & H). inversion H; subst.
  assert (R1 : Rc (core_of s) c1) by (intros Hw; eapply map_sn_wids; eassumption).
  assert (R2 : Rc c1 c2) by (intros Hw; eapply map_mn_wids; eassumption).
  assert (R3 : Rc c2 c3).
  { intros Hw. destruct (queues_top_priority (c_queues c2)); [|inversion H3; reflexivity]. eapply prefill_queues_wids; eassumption. }
  eapply R_trans; [apply R_core; exact (Rc_trans _ _ _ (Rc_trans _ _ _ R1 R2) R3)|].
  eapply R_trans; [eapply send_mapping_R; exact H4|].
  eapply R_trans; [eapply send_mn_R; exact H5|]. apply R_eq. reflexivity.
Qed.

Lemma get_or_create_rq_R s r : R s (fst (get_or_create_rq s r)).
Proof.
  unfold get_or_create_rq. cbv zeta. destruct (rq_index _ r 0); cbn [fst]; [apply R_refl|].
  intros Hs. rewrite <- (broadcast_sids s (DNewRq (N.of_nat (length (c_rqs (core_of s)))) r)). reflexivity.
Qed.

Lemma R_same s s' : core_of s' = core_of s -> s_procs (fst s') = s_procs (fst s) -> R s s'.
Proof. intros E1 E2. apply R_CP. unfold CP. rewrite E1, E2. reflexivity. Qed.

Lemma handle_submit_array_R s jobsel ids entries rq prio cl tlim mf s' :
  handle_submit_array s jobsel ids entries rq prio cl tlim mf = Ok s' -> R s s'.
Proof. exact (handle_submit_array_pass R R_trans R_same get_or_create_rq_R on_new_tasks_R _ _ _ _ _ _ _ _ _ _). Qed.

Lemma handle_submit_graph_R s jobsel rqs ts mf s' : handle_submit_graph s jobsel rqs ts mf = Ok s' -> R s s'.
Proof. exact (handle_submit_graph_pass R R_trans R_same get_or_create_rq_R on_new_tasks_R _ _ _ _ _ _). Qed.

Lemma handle_open_R s mf s' : handle_open s mf = Ok s' -> R s s'.
Proof. unfold handle_open. intros H. inversion H; subst. apply R_CP. reflexivity. Qed.

Lemma handle_close_R s jid s' : handle_close s jid = Ok s' -> R s s'.
Proof.
  unfold handle_close. intros H. destruct (find_job _ jid) as [j|]; [|inversion H; subst; apply R_CP; reflexivity].
  destruct (j_open j); [|inversion H; subst; apply R_CP; reflexivity].
  apply bind_ok in H as (s1 & H1 & H). inversion H; subst. apply R_CP.
  transitivity (CP s1); [reflexivity|]. rewrite (check_termination_CP _ _ _ H1). reflexivity.
Qed.

Lemma handle_cancel_R s jid s' : handle_cancel s jid = Ok s' -> R s s'.
Proof.
  unfold handle_cancel. intros H. destruct (find_job _ jid) as [j|]; [|inversion H; subst; apply R_CP; reflexivity].
  cbv zeta in H. destruct (non_finished_task_ids j) as [|i ids]; [inversion H; subst; apply R_CP; reflexivity|].
  apply bind_ok in H as (s1 & H1 & H). apply bind_ok in H as (al & _ & H).
  apply bind_ok in H as (s2 & H2 & H). inversion H; subst.
  eapply R_trans; [eapply on_cancel_tasks_R; exact H1|]. apply R_CP.
  transitivity (CP s2); [reflexivity|]. eapply set_cancel_state_CP; exact H2.
Qed.

Lemma handle_forget_R s jid s' : handle_forget s jid = Ok s' -> R s s'.
Proof.
  unfold handle_forget. intros H. destruct (find_job _ jid) as [j|]; [|inversion H; subst; apply R_CP; reflexivity].
  apply bind_ok in H as (na & _ & H). destruct (negb (j_open j) && na); inversion H; subst; apply R_CP; reflexivity.
Qed.

Lemma try_start_task_id p t rv pf al p' u l b : try_start_task p t rv pf al = (p', u, l, b) -> p_id p' = p_id p.
Proof. unfold try_start_task. destruct (tid_mem _ _); intros H; inversion H; reflexivity. Qed.

Lemma prefill_loop_id fuel : forall p rq rv al ups ls p' u l b, prefill_loop fuel p rq rv al ups ls = (p', u, l, b) -> p_id p' = p_id p.
Proof.
  induction fuel as [|k IH]; cbn [prefill_loop]; intros p rq rv al ups ls p' u l b H; [inversion H; reflexivity|].
  destruct (pop_last _) as [[t rest]|]; [|inversion H; reflexivity].
  destruct (bl_has _ rq); [|inversion H; reflexivity].
  destruct (try_start_task _ t rv true al) as [[[p1 u1] l1] started] eqn:Et.
  apply try_start_task_id in Et. cbn in Et.
  destruct started; [inversion H; subst; exact Et|]. rewrite (IH _ _ _ _ _ _ _ _ _ _ H). exact Et.
Qed.

Lemma compute_loop_id ts : forall p ups ls p' u l, compute_loop p ts ups ls = Ok (p', u, l) -> p_id p' = p_id p.
Proof.
  induction ts as [|ct r IH]; cbn [compute_loop]; intros p ups ls p' u l H; [inversion H; reflexivity|].
  destruct (ct_rv ct) as [rv|]; [|rewrite (IH _ _ _ _ _ _ H); reflexivity].
  apply bind_ok in H as (rq & _ & H). destruct (negb (N.eqb rv 0)); [discriminate|].
  destruct (res_fits _ _).
  - match type of H with (match ?x with _ => _ end) = _ => destruct x as [[[p1 u1] l1] started] eqn:Et end.
    apply try_start_task_id in Et. cbn in Et.
    destruct started; [rewrite (IH _ _ _ _ _ _ H); exact Et|].
    match type of H with (match ?x with _ => _ end) = _ => destruct x as [[[p2 u2] l2] b2] eqn:Ep end.
    apply prefill_loop_id in Ep. rewrite (IH _ _ _ _ _ _ H), Ep. exact Et.
  - rewrite (IH _ _ _ _ _ _ H). reflexivity.
Qed.

Lemma cancel_task_id p t : p_id (cancel_task p t) = p_id p.
Proof. unfold cancel_task. destruct (run_find _ t); [destruct (fu_find _ t) as [[|]|]|]; reflexivity. Qed.

Lemma fold_cancel_id ids : forall p, p_id (fold_left cancel_task ids p) = p_id p.
Proof. induction ids as [|t r IH]; cbn [fold_left]; intros p; [reflexivity|]. rewrite IH. apply cancel_task_id. Qed.

Lemma process_worker_message_id p m order p' ls : process_worker_message p m order = Ok (p', ls) -> p_id p' = p_id p.
Proof.
  unfold process_worker_message. intros H. destruct m.
  - apply bind_ok in H as ([[p1 ups] l1] & H1 & H). apply compute_loop_id in H1.
    destruct ups; inversion H; subst; exact H1.
  - destruct (negb _); [discriminate|]. destruct (retract_from _ _ _ _) as [b out]. destruct ids; inversion H; reflexivity.
  - inversion H; subst. apply fold_cancel_id.
  - inversion H; reflexivity.
  - inversion H; reflexivity.
  - destruct (N.eqb _ _); [|discriminate]. inversion H; reflexivity.
  - inversion H; reflexivity.
Qed.

Lemma task_end_id p t how p' ls : task_end p t how = Ok (p', ls) -> p_id p' = p_id p.
Proof.
  unfold task_end. intros H. destruct (fu_find _ t) as [stop|]; [|discriminate].
  destruct (run_find _ t) as [rv|]; [|discriminate]. destruct (al_find _ t) as [[|rq alloc]|]; try discriminate.
  match type of H with (match ?x with _ => _ end) = _ => destruct x as [[[p1 u1] l1] used] eqn:Ep end.
  apply prefill_loop_id in Ep. cbn in Ep.
  destruct (negb used); cbn in H; match type of H with match ?u with _ => _ end = _ => destruct u end; inversion H; subst; exact Ep.
Qed.

Lemma timer_fire_id p t : p_id (timer_fire p t) = p_id p.
Proof. unfold timer_fire. cbn. destruct (fu_find _ t) as [[|]|]; reflexivity. Qed.
Lemma fold_timer_id ts : forall p, p_id (fold_left timer_fire ts p) = p_id p.
Proof. induction ts as [|t r IH]; cbn [fold_left]; intros p; [reflexivity|]. rewrite IH. apply timer_fire_id. Qed.

Definition PI (s : st) : Prop := WS (core_of s) /\ pids s = wids (core_of s).

Lemma PI_SI s : PI s -> SI s.
Proof. intros [H1 H2]. split; [exact H1|]. unfold PS. rewrite H2. exact H1. Qed.

Lemma R_PI s s' : R s s' -> PI s -> PI s'.
Proof.
  intros HR HP. pose proof (HR (PI_SI _ HP)) as E. unfold sids in E. inversion E as [[E1 E2]].
  destruct HP as [H1 H2]. split; [eapply WS_eq; eassumption|]. rewrite E1, E2. exact H2.
Qed.

Lemma on_new_worker_PI s rs g s' : PI s -> on_new_worker s rs g = Ok s' -> PI s'.
Proof.
  unfold on_new_worker. intros [Hw Hp] H. inversion H; subst. unfold PI, WS, pids, wids in *. cbn.
  split; [apply set_worker_sorted; exact Hw|].
  apply set_both; [rewrite map_map; exact Hp | reflexivity].
Qed.

(** The lost worker leaves the core and its process the list of processes: the same id on both
    sides; the release of its tasks then keeps the ids. *)
Lemma lost_sets_PI s w wk ao po c2 running retracted :
  find_worker (c_workers (core_of s)) w = Some wk ->
  lost_sets (with_workers (core_of s) (del_worker (c_workers (core_of s)) w)) w wk ao po = Ok (c2, running, retracted) ->
  PI s -> PI (st_core (with_procs (fst s) (del_proc (s_procs (fst s)) w), snd s) c2).
Proof.
  intros _ Hr [Hw Hp].
  set (c0 := with_workers (core_of s) (del_worker (c_workers (core_of s)) w)) in *.
  set (s0 := (with_procs (fst s) (del_proc (s_procs (fst s)) w), snd s) : st).
  assert (P0 : PI (st_core s0 c0)).
  { unfold PI, WS, pids, wids in *. cbn. split; [apply del_worker_sorted; exact Hw | apply del_both; exact Hp]. }
  change (PI (st_core (st_core s0 c0) c2)). eapply R_PI; [apply R_core | exact P0].
  intros Hw0. change (WS c0) in Hw0. change (wids c2 = wids c0). unfold lost_sets in Hr.
  destruct (w_assign wk) as [aa pp ff|mt root].
  - destruct (negb _); [discriminate|]. apply bind_ok in Hr as (c1 & H1 & Hr).
    pose proof (lost_prefilled_wids _ _ _ Hw0 H1) as E1.
    rewrite (lost_assigned_wids _ _ _ _ _ _ _ (WS_eq _ _ E1 Hw0) Hr). exact E1.
  - apply bind_ok in Hr as (tk & _ & Hr). destruct (t_state tk); try discriminate.
    destruct ws as [|w0 rest]; [discriminate|]. destruct (N.eqb w w0); [|inversion Hr; reflexivity].
    apply bind_ok in Hr as (c1 & H1 & Hr). apply bind_ok in Hr as ([qs ret] & _ & Hr).
    inversion Hr; subst. exact (reset_mn_all_wids _ _ _ Hw0 H1).
Qed.

Lemma on_remove_worker_PI s w reason a p t s' : PI s -> on_remove_worker s w reason a p t = Ok s' -> PI s'.
Proof.
  intros HP H. revert HP.
  refine (on_remove_worker_rel (fun x y => PI x -> PI y) _ lost_sets_PI _ _ _ _ _ _ s w reason a p t s' H).
  - intros x y z A B HP. exact (B (A HP)).
  - intros l x w0 x' H0. apply R_PI. eapply lost_retracting_R; exact H0.
  - intros x r x' H0. apply R_PI. eapply process_retracted_R; exact H0.
  - intros x w0. apply R_PI, R_eq, broadcast_sids.
  - intros x w0 running reason0 x' H0. apply R_PI, R_CP. eapply process_worker_lost_CP; exact H0.
  - intros l x reason0 x' H0. apply R_PI. eapply lost_fail_running_R; exact H0.
  - intros x. apply R_PI, R_eq. reflexivity.
Qed.

Lemma set_proc_PI s w p p' outs :
  PI (s, @nil out) -> find_proc (s_procs s) w = Some p -> p_id p' = p_id p -> PI (with_procs s (set_proc (s_procs s) p'), outs).
Proof.
  intros HP Hf Hi. destruct (PI_SI _ HP) as [_ Hps]. destruct HP as [Hw Hp]. unfold PI, pids, PS, pids in *. cbn in *.
  split; [exact Hw|]. etransitivity; [|exact Hp]. eapply set_proc_keep; [exact Hps | exact Hi | exact Hf].
Qed.

Lemma PI_outs s o o' : PI (s, o) -> PI (s, o').
Proof. intros H. exact H. Qed.

Lemma step_PI s o s' outs : PI (s, []) -> step s o = Ok (s', outs) -> PI (s', []).
Proof.
  intros HP H. apply (PI_outs s' outs). revert HP.
  refine (step_walk (fun x y => PI x -> PI y) (fun _ => True) _ _ _ _ _ _ _ _ _ _ _ _ _ _ _ _ s o s' outs I H); clear.
  - intros s rs g s' _ H HP. eapply on_new_worker_PI; eassumption.
  - intros s w reason a p t pw s' _ _ H HP. eapply on_remove_worker_PI; eassumption.
  - intros s o c a _ HP. exact HP.
  - intros s job ids entries rq prio cl tlim mf s' _ H. apply R_PI. eapply handle_submit_array_R; exact H.
  - intros s job rqs ts mf s' _ H. apply R_PI. eapply handle_submit_graph_R; exact H.
  - intros s mf s' _ H. apply R_PI. eapply handle_open_R; exact H.
  - intros s j s' _ H. apply R_PI. eapply handle_close_R; exact H.
  - intros s j s' _ H. apply R_PI. eapply handle_cancel_R; exact H.
  - intros s j s' _ H. apply R_PI. eapply handle_forget_R; exact H.
  - intros s w p m rest s' _ Ef _.
    refine (step_up_rel (fun x y => PI x -> PI y) s w p m rest s' (fun x y z A B HP => B (A HP)) _ _ _).
    + intros HP. eapply set_proc_PI; [exact HP | exact Ef | reflexivity].
    + intros x us x' H. apply R_PI. eapply on_task_update_R; exact H.
    + intros x ids x' H. apply R_PI. eapply on_retract_response_R; exact H.
  - intros s sol s' _ _ H. apply R_PI. eapply run_scheduling_R; exact H.
  - intros s lj _ _ HP. exact HP.
  - intros s w order p m rest p' ls _ Ef _ H HP.
    eapply set_proc_PI; [exact HP | exact Ef |]. rewrite (process_worker_message_id _ _ _ _ _ H). reflexivity.
  - intros s w t how p p' ls _ Ef H HP. eapply set_proc_PI; [exact HP | exact Ef | exact (task_end_id _ _ _ _ _ H)].
  - intros s w t p _ Ef HP. eapply set_proc_PI; [exact HP | exact Ef | reflexivity].
  - intros s _ [Hw Hp]. split; [exact Hw|]. unfold pids in *. cbn in *. etransitivity; [|exact Hp].
    rewrite map_map. apply map_ext. intros p. apply fold_timer_id.
Qed.

Lemma run_PI ops : forall s s' outs, PI (s, []) -> run s ops = Ok (s', outs) -> PI (s', []).
Proof.
  induction ops as [|o r IH]; cbn [run]; intros s s' outs HP H; [inversion H; subst; exact HP|].
  apply bind_ok in H as ([s1 o1] & H1 & H). apply bind_ok in H as ([s2 o2] & H2 & H).
  inversion H; subst. eapply IH; [eapply step_PI; eassumption | exact H2].
Qed.

Theorem reachable_PW_sorted : forall ops r m s outs, run (init_sys r m) ops = Ok (s, outs) ->
  StronglySorted N.lt (map w_id (c_workers (s_core s))) /\ PW s.
Proof.
  intros ops r m s outs H.
  assert (P0 : PI (init_sys r m, [])) by (split; [constructor | reflexivity]).
  exact (run_PI _ _ _ _ P0 H).
Qed.

Theorem reachable_PW : forall ops r m s outs, run (init_sys r m) ops = Ok (s, outs) -> PW s.
Proof. intros ops r m s outs H. exact (proj2 (reachable_PW_sorted ops r m s outs H)). Qed.

Theorem step_PW s o s' outs :
  StronglySorted N.lt (map w_id (c_workers (s_core s))) -> PW s -> step s o = Ok (s', outs) ->
  StronglySorted N.lt (map w_id (c_workers (s_core s'))) /\ PW s'.
Proof. intros Hw Hp H. exact (step_PI s o s' outs (conj Hw Hp) H). Qed.
