(** C09 for the scheduling step.
    Proactive filling ([prefill_mark], [prefill_workers], [prefill_queues]) never panics - no
    obligation of the solver, everything follows from the worker-set and queue invariants and the
    arithmetic of [process_proactive_filling].  Then: sending the mapping, the executable contract
    [sol_ok] of the solver's answer and the theorem [scheduling_never_panics]. *)
From HQ Require Import Base.Prelude Cluster.Types Cluster.Core Cluster.Reactor Cluster.Server Cluster.Sys Cluster.InvWBase Cluster.InvWView Cluster.InvWCore Cluster.InvWServer Cluster.InvQBase Cluster.InvQInv Cluster.InvQSched Cluster.NoPanicC1 Cluster.BijBase Cluster.InvQTake Cluster.InvProcsDef Cluster.InvBundle Cluster.NoPanicS1 Cluster.NoPanicS3 Cluster.NoPanicS4.
From HQ Require Import Cluster.ModelFacts.
From Coq Require Import ZArith Lia Sorting.Sorted.
Local Open Scope N_scope.
Arguments N.add : simpl never.
Arguments N.sub : simpl never.
Arguments N.mul : simpl never.
Arguments N.div : simpl never.
Arguments N.min : simpl never.

(** The waiting tasks of a core: the only tasks proactive filling may touch. *)
Definition waitT (c : core) : tid -> Prop := fun y => exists tk, find_task (c_tasks c) y = Some tk /\ is_waiting tk = true.

Lemma waiting_back W Q c c' y : SF (waitT c) W Q c c' -> waitT c' y -> waitT c y.
Proof.
  intros A (tk' & Hf' & Hw'). destruct (find_task (c_tasks c) y) as [tk|] eqn:E.
  - destruct (is_waiting tk) eqn:Ew; [exists tk; auto|]. exfalso.
    assert (Hn : ~ waitT c y) by (intros (t0 & H0 & H1); rewrite E in H0; inversion H0; subst; congruence).
    rewrite (sf_t _ _ _ _ _ A y Hn), E in Hf'. inversion Hf'; subst. congruence.
  - rewrite (sf_tnone _ _ _ _ _ A y E) in Hf'. discriminate.
Qed.

Lemma prefill_mark_ok w l : forall c,
  WI c -> NoDup l -> (forall id, In id l -> waitT c id) -> snw c w ->
  exists c', prefill_mark c w l = Ok c' /\ SF (fun y => In y l) (eq w) (fun _ => False) c c' /\ SNP c c' /\ c_queues c' = c_queues c.
Proof.
  induction l as [|id r IH]; intros c HW Hnd Hwt Hsn; cbn [prefill_mark].
  - exists c. split; [reflexivity|]. split; [apply SF_refl|]. split; [apply SNP_refl | reflexivity].
  - inversion Hnd as [|? ? Hni Hnr]; subst.
    destruct (Hwt id (or_introl eq_refl)) as (t & Ht & Hw8).
    destruct (find_task_some _ _ _ Ht) as [_ Hid].
    destruct Hsn as (wk & a & p & f & Hw & Ea).
    destruct (find_worker_some _ _ _ Hw) as [_ Hwi].
    assert (Hnp : tid_mem id p = false).
    { destruct HW as (_ & _ & Hv & _). pose proof (wi_P _ _ _ Hv w id) as X.
      unfold inP, wantP, hv, x0 in X. rewrite Hw, Ea, (TV_find _ _ _ Ht) in X. cbn [plo] in X.
      unfold is_waiting in Hw8. destruct (t_state t); try discriminate. exact X. }
    set (wk' := with_assign wk (Sn a (tid_insert id p) f)).
    set (c2 := upd_worker (upd_task c (with_state t (Prefilled w))) wk').
    assert (E1 : forall r0, prefill_mark c w (id :: r0) = prefill_mark c2 w r0).
    { intros r0. cbn [prefill_mark]. unfold get_task at 1. rewrite Ht. cbn [bind]. rewrite Hw8. cbn [negb].
      unfold get_worker at 1. cbn [c_workers upd_task with_tasks]. rewrite Hw. cbn [bind].
      unfold insert_prefill_task. rewrite Ea, Hnp. cbn [bind]. reflexivity. }
    pose proof (prefill_mark_WI [id] c w c2 HW (E1 [])) as W2.
    assert (F1 : SF (eq id) (eq w) (fun _ => False) c c2).
    { eapply SF_trans; [eapply SF_upd_task; [exact Ht | reflexivity]|].
      eapply SF_upd_worker; [exact Hw | exact Hwi | left; reflexivity]. }
    assert (S1 : SNP c c2).
    { eapply SNP_trans; [apply (SNP_same c (upd_task c (with_state t (Prefilled w)))); reflexivity|].
      eapply SNP_upd_worker; [exact Hw | exact Hwi | reflexivity]. }
    destruct (IH c2 W2 Hnr) as (c' & E' & F' & S' & Q').
    { intros y Hy. destruct (Hwt y (or_intror Hy)) as (ty & Hty & Hwy). exists ty. split; [|exact Hwy].
      rewrite (sf_t _ _ _ _ _ F1 y); [exact Hty|]. intros <-. contradiction. }
    { apply S1. exists wk, a, p, f. auto. }
    exists c'. split; [change (prefill_mark c w (id :: r) = Ok c'); rewrite E1; exact E'|].
    split; [|split; [exact (SNP_trans _ _ _ S1 S')|rewrite Q'; reflexivity]].
    eapply SF_trans; [eapply SF_weaken; [| | |exact F1]; [intros y <-; left; reflexivity | auto | auto]|].
    eapply SF_weaken; [| | |exact F']; auto. intros y Hy. right. exact Hy.
Qed.

Lemma tff_prefill e t psize k :
  eok e -> 0 < psize -> psize * (1 + k) <= nlen (qe_ids e) ->
  exists a b cnt, take_from_first (e :: t) psize = Ok (a, match b with [] => t | _ => mkQE (qe_prio e) true b :: t end, cnt) /\
    qe_ids e = a ++ b /\ psize * k <= nlen b.
Proof.
  intros [Hs Hone] Hp Hle. rewrite N.mul_add_distr_l, N.mul_1_r in Hle. destruct (qe_more e) eqn:Em.
  - destruct (take_n (N.to_nat psize) (qe_ids e)) as [a b] eqn:Et.
    pose proof (take_n_app _ _ _ _ Et) as Eab. destruct (take_n_len _ _ _ _ Et) as [L1 _].
    exists a, b, (psize - nlen a). split; [apply take_from_first_more; assumption|]. split; [exact Eab|].
    assert (La : nlen (qe_ids e) = nlen a + nlen b) by (rewrite Eab; apply nlen_app).
    unfold nlen in *. lia.
  - destruct (Hone eq_refl) as (x & Ex). exists (qe_ids e), [], (psize - 1).
    split; [apply take_from_first_one; [exact Em | lia]|]. split; [rewrite app_nil_r; reflexivity|].
    rewrite Ex in Hle. unfold nlen in *. cbn [length] in *. lia.
Qed.

(** The state of queue [qi] the loop over the eligible workers relies on. *)
Definition pf_queue_ok (c : core) (qi : nat) (psize : N) (k : N) : Prop :=
  exists q e t, nth_error (c_queues c) qi = Some q /\ q_ready q = e :: t /\
    (q_prefill q = None \/ exists ts, q_prefill q = Some (qe_prio e, ts)) /\
    psize * k <= nlen (qe_ids e) /\
    (forall id, In id (qe_ids e) -> waitT c id).

Lemma prefill_workers_ok qi psize ws : forall c m,
  WI c -> QI none [] c -> MOK c m -> 0 < psize -> (forall w, In w ws -> snw c w) ->
  (ws <> [] -> pf_queue_ok c qi psize (nlen ws)) ->
  exists c' m', prefill_workers c m qi psize ws = Ok (c', m') /\ WI c' /\ QI none [] c' /\ MOK c' m' /\
    SF (waitT c) (fun _ => True) (eq qi) c c'.
Proof.
  induction ws as [|w rest IH]; intros c m HW V HM Hp Hsn Hqk; cbn [prefill_workers].
  - exists c, m. split; [reflexivity|]. split; [exact HW|]. split; [exact V|]. split; [exact HM | apply SF_refl].
  - destruct (Hqk ltac:(discriminate)) as (q & e & t & Hq & Er & Hpf & Hsz & Hwt).
    pose proof (proj2 (nth_queue_ok _ _ _) Hq) as Hnq.
    pose proof (nth_error_Forall _ _ _ _ (qv_wf _ _ _ _ _ _ V) Hq) as WQ.
    assert (He : eok e) by (destruct WQ as [W1 _]; rewrite Er in W1; exact (proj1 (WFE_inv _ _ W1))).
    rewrite nlen_cons in Hsz.
    destruct (tff_prefill e t psize (nlen rest) He Hp Hsz) as (a & b & cnt & Etf & Eab & Hb).
    set (es' := match b with [] => t | _ :: _ => mkQE (qe_prio e) true b :: t end) in *.
    assert (Etk : exists ts', q_take_tasks_for_prefill q psize = Ok (a, mkQ es' (Some (qe_prio e, ts')))).
    { unfold q_take_tasks_for_prefill. rewrite Er, Etf. cbn [bind].
      destruct Hpf as [Hn|(ts & Hs)]; [rewrite Hn; eexists; reflexivity | rewrite Hs, Z.eqb_refl; eexists; reflexivity]. }
    destruct Etk as (ts' & Etk). set (q' := mkQ es' (Some (qe_prio e, ts'))) in *.
    set (c1 := with_queues c (set_queue (c_queues c) qi q')).
    assert (W1 : WI c1) by (eapply WIX_frame; [| | | |exact HW]; reflexivity).
    assert (Hnd : NoDup (a ++ b)) by (rewrite <- Eab; apply SL_NoDup; exact (proj1 He)).
    destruct (prefill_mark_ok w a c1 W1 (NoDup_app_l _ _ Hnd)) as (c2 & E2 & F2 & S2 & Q2).
    { intros id Hid. apply (Hwt id). rewrite Eab. apply in_or_app. left. exact Hid. }
    { apply (SNP_same c c1 eq_refl). apply Hsn. left. reflexivity. }
    set (m2 := wu_set m (mkWU w (wu_assigned (wu_get m w)) (wu_prefills (wu_get m w) ++ a) (wu_retracts (wu_get m w)))).
    assert (E1 : forall r0, prefill_workers c m qi psize (w :: r0) = prefill_workers c2 m2 qi psize r0).
    { intros r0. cbn [prefill_workers]. rewrite Hnq. cbn [bind]. rewrite Etk. cbn [bind].
      change (with_queues c (set_queue (c_queues c) qi q')) with c1. rewrite E2. cbn [bind]. reflexivity. }
    pose proof (prefill_workers_WI [w] c m qi psize c2 m2 HW (E1 [])) as W2.
    pose proof (prefill_workers_QI [w] c m qi psize c2 m2 V (E1 [])) as V2.
    assert (F02 : SF (fun y => In y a) (eq w) (eq qi) c c2).
    { eapply SF_trans; [apply SF_set_queue; reflexivity|]. eapply SF_weaken; [| | |exact F2]; auto. intros j []. }
    assert (M2 : MOK c2 m2).
    { apply MOK_add_prefills; [eapply MOK_SF; [exact F02 | exact HM] | |].
      - apply (sf_wsome _ _ _ _ _ F02). destruct (Hsn w (or_introl eq_refl)) as (wk & ? & ? & ? & Hw & _). congruence.
      - intros id Hid. eapply SF_task_some; [exact F02|]. destruct (Hwt id) as (tk & Htk & _); [rewrite Eab; apply in_or_app; left; exact Hid | congruence]. }
    destruct (IH c2 m2 W2 V2 M2 Hp) as (c' & m' & E' & W' & V' & M' & F').
    { intros y Hy. apply S2. apply (SNP_same c c1 eq_refl). apply Hsn. right. exact Hy. }
    { intros Hne. assert (Hbn : 0 < nlen b).
      { destruct rest; [congruence|]. rewrite nlen_cons in Hb. rewrite N.mul_add_distr_l, N.mul_1_r in Hb. lia. }
      destruct b as [|b0 bb] eqn:Eb; [cbn in Hbn; lia|]. rewrite <- Eb in *.
      exists q', (mkQE (qe_prio e) true b), t. split.
      - rewrite Q2. cbn [c1 c_queues with_queues]. eapply nth_set_queue_same. exact Hq.
      - split; [subst q' es'; rewrite Eb; reflexivity|]. split; [right; exists ts'; reflexivity|]. split; [exact Hb|].
        cbn [qe_ids]. intros id Hid. destruct (Hwt id) as (tk & Htk & Hwk); [rewrite Eab; apply in_or_app; right; exact Hid|].
        exists tk. split; [|exact Hwk]. rewrite (sf_t _ _ _ _ _ F02 id); [exact Htk|].
        intros X. exact (NoDup_app_disj _ _ _ Hnd X Hid). }
    exists c', m'. split; [change (prefill_workers c m qi psize (w :: rest) = Ok (c', m')); rewrite E1; exact E'|].
    split; [exact W'|]. split; [exact V'|]. split; [exact M'|].
    assert (F02' : SF (waitT c) (fun _ => True) (eq qi) c c2).
    { eapply SF_weaken; [| | |exact F02]; auto. intros y Hy. apply Hwt. rewrite Eab. apply in_or_app. left. exact Hy. }
    eapply SF_trans; [exact F02'|]. eapply SF_weaken; [| | |exact F']; auto.
    intros y Hy. eapply waiting_back; [exact F02' | exact Hy].
Qed.

Lemma top_ids_live c qi q : QI none [] c -> nth_error (c_queues c) qi = Some q ->
  forall id, In id (q_top_task_ids q) -> find_task (c_tasks c) id <> None.
Proof.
  intros V Hq id Hin. unfold q_top_task_ids in Hin. destruct (q_ready q) as [|e t] eqn:Er; [destruct Hin|].
  assert (Hm : member q id).
  { exists (qe_prio e). left. unfold RdyAt. rewrite Er. exists e. split; [left; reflexivity | auto]. }
  destruct (qv_live _ _ _ _ _ _ V qi q id Hq Hm) as (t0 & Hf & _). congruence.
Qed.

Lemma existsb_false {A} (f : A -> bool) l : existsb f l = false -> forall x, In x l -> f x = false.
Proof.
  intros H x Hx. destruct (f x) eqn:E; [|reflexivity]. rewrite <- H. symmetry. apply existsb_exists. exists x. auto.
Qed.

Theorem prefill_queues_ok worder top n : forall c m qi,
  WI c -> QI none [] c -> MOK c m -> (qi + n = length (c_queues c))%nat ->
  exists c' m', prefill_queues c m worder qi n top = Ok (c', m') /\ WI c' /\ QI none [] c' /\ MOK c' m' /\
    SF (waitT c) (fun _ => True) (fun _ => True) c c'.
Proof.
  induction n as [|k IH]; intros c m qi HW V HM Hlen; cbn [prefill_queues].
  - exists c, m. split; [reflexivity|]. split; [exact HW|]. split; [exact V|]. split; [exact HM | apply SF_refl].
  - destruct (nth_error_ex (c_queues c) qi ltac:(lia)) as (q & Hq).
    rewrite (proj2 (nth_queue_ok _ _ _) Hq). cbn [bind].
    assert (Hskip : exists c' m', prefill_queues c m worder (S qi) k top = Ok (c', m') /\ WI c' /\ QI none [] c' /\ MOK c' m' /\
              SF (waitT c) (fun _ => True) (fun _ => True) c c') by (apply IH; [exact HW | exact V | exact HM | lia]).
    destruct (q_top_priority q) as [tp|] eqn:Etp; [|exact Hskip].
    destruct (negb (Z.eqb tp top)); [exact Hskip|].
    destruct (N.eqb (q_top_size_no_prefill q - c_reserve c) 0) eqn:Esz; [exact Hskip|].
    destruct (existsb _ (q_top_task_ids q)) eqn:Eex.
    + assert (Eall : forallb (fun id => match find_task (c_tasks c) id with Some _ => true | None => false end) (q_top_task_ids q) = true).
      { apply forallb_forall. intros id Hid. pose proof (top_ids_live c qi q V Hq id Hid) as X.
        destruct (find_task (c_tasks c) id); [reflexivity | congruence]. }
      rewrite Eall. exact Hskip.
    + match goal with |- context [filter ?f worder] => set (elig := f) end.
      destruct (filter elig worder) as [|w0 wr] eqn:Ews; [exact Hskip|].
      match goal with |- context [N.eqb ?ps 0] => set (psize := ps) end.
      destruct (N.eqb psize 0) eqn:Eps; [exact Hskip|].
      apply N.eqb_neq in Eps. apply N.eqb_neq in Esz.
      unfold q_top_priority in Etp. destruct (q_ready q) as [|e t] eqn:Er; [discriminate|].
      assert (Hpf : (q_prefill q = None \/ exists ts, q_prefill q = Some (qe_prio e, ts)) /\ q_top_size_no_prefill q = nlen (qe_ids e)).
      { unfold q_top_size_no_prefill in *. rewrite Er in *. destruct (q_prefill q) as [[pp ts]|]; [|split; [left; reflexivity | reflexivity]].
        destruct (Z.eqb pp (qe_prio e)) eqn:Epp; [|exfalso; apply Esz; lia].
        apply Z.eqb_eq in Epp. subst pp. split; [right; exists ts; reflexivity | reflexivity]. }
      destruct Hpf as [Hpf Htop].
      assert (Hwt : forall id, In id (qe_ids e) -> waitT c id).
      { intros id Hid. pose proof (existsb_false _ _ Eex id) as X. unfold q_top_task_ids in X. rewrite Er in X. specialize (X Hid).
        cbn beta in X. destruct (find_task (c_tasks c) id) as [tk|] eqn:Ef; [|discriminate]. exists tk. split; [exact Ef|].
        destruct (is_waiting tk); [reflexivity | discriminate]. }
      assert (Hsn : forall w, In w (w0 :: wr) -> snw c w).
      { intros w Hw. rewrite <- Ews in Hw. apply filter_In in Hw. destruct Hw as [_ Hw]. unfold elig in Hw.
        destruct (find_worker (c_workers c) w) as [wk|] eqn:Efw; [|discriminate].
        destruct (w_assign wk) as [a p f|] eqn:Ea; [|discriminate]. exists wk, a, p, f. auto. }
      assert (Hsz : psize * nlen (w0 :: wr) <= nlen (qe_ids e)).
      { set (nw := nlen (w0 :: wr)) in *. assert (Hnw : nw <> 0) by (unfold nw; rewrite nlen_cons; lia).
        set (size := q_top_size_no_prefill q - c_reserve c) in *.
        assert (H1 : psize <= size / nw) by (unfold psize; apply N.le_min_l).
        pose proof (N.mul_le_mono_r _ _ nw H1) as H2. pose proof (N.mul_div_le size nw Hnw) as H3.
        rewrite (N.mul_comm (size / nw) nw) in H2. unfold size in *. lia. }
      destruct (prefill_workers_ok qi psize (w0 :: wr) c m HW V HM ltac:(lia) Hsn) as (c1 & m1 & E1 & W1 & V1 & M1 & F1).
      { intros _. exists q, e, t. auto. }
      rewrite E1. cbn [bind].
      assert (F1' : SF (waitT c) (fun _ => True) (fun _ => True) c c1) by (eapply SF_weaken; [| | |exact F1]; auto).
      destruct (IH c1 m1 (S qi) W1 V1 M1) as (c2 & m2 & E2 & W2 & V2 & M2 & F2); [rewrite (sf_qlen _ _ _ _ _ F1); lia|].
      exists c2, m2. split; [exact E2|]. split; [exact W2|]. split; [exact V2|]. split; [exact M2|].
      eapply SF_trans; [exact F1'|]. eapply SF_weaken; [| | |exact F2]; auto.
      intros y Hy. eapply waiting_back; [exact F1' | exact Hy].
Qed.

Lemma send_worker_ok s w m : PWc s -> has_proc s w ->
  exists s', send_worker s w m = Ok s' /\ core_of s' = core_of s /\ PWc s'.
Proof.
  intros HP Hw. destruct (send_worker_tot s w m Hw) as (s' & E & C & Hp). exists s'. split; [exact E|]. split; [exact C|].
  intros y Hy. apply Hp, HP. rewrite <- C. exact Hy.
Qed.

Lemma send_opt_ok {A} s w (l : list A) (f : list A -> dmsg) : PWc s -> find_worker (c_workers (core_of s)) w <> None ->
  exists s', match l with [] => Ok s | x :: r => send_worker s w (f (x :: r)) end = Ok s' /\ core_of s' = core_of s /\ PWc s'.
Proof.
  intros HP Hw. destruct l; [exists s; auto|]. apply send_worker_ok; [exact HP | apply HP; exact Hw].
Qed.

Lemma ctasks_prefill_ok c l : (forall id, In id l -> find_task (c_tasks c) id <> None) -> exists r, ctasks_prefill c l = Ok r.
Proof.
  induction l as [|id r IH]; cbn [ctasks_prefill]; intros H; [eexists; reflexivity|].
  unfold get_task. destruct (find_task (c_tasks c) id) as [t|] eqn:E; [|exfalso; exact (H id (or_introl eq_refl) E)].
  cbn [bind]. destruct IH as (r0 & E0); [intros y Hy; apply H; right; exact Hy|]. rewrite E0. cbn [bind]. eexists; reflexivity.
Qed.

Lemma send_mapping_ok m : forall s, MOK (core_of s) m -> PWc s ->
  exists s', send_mapping s m = Ok s' /\ core_of s' = core_of s /\ PWc s'.
Proof.
  induction m as [|u r IH]; intros s HM HP; cbn [send_mapping].
  - exists s. auto.
  - destruct (HM u (or_introl eq_refl)) as (Hw & Ha & Hp).
    destruct (send_opt_ok s (wu_w u) (wu_retracts u) DRetract HP Hw) as (s1 & E1 & C1 & P1).
    cbv beta in E1. rewrite E1. cbn [bind]. rewrite C1.
    destruct (ctasks_prefill_ok (core_of s) (wu_prefills u) Hp) as (cts1 & ->). cbn [bind].
    destruct (ctasks_of_ok (core_of s) (wu_assigned u) Ha) as (cts2 & ->). cbn [bind].
    destruct (send_opt_ok s1 (wu_w u) (cts1 ++ cts2) DCompute P1) as (s2 & E2 & C2 & P2); [rewrite C1; exact Hw|].
    cbv beta in E2. rewrite E2. cbn [bind].
    destruct (IH s2) as (s3 & E3 & C3 & P3); [rewrite C2, C1; intros u0 Hu0; apply HM; right; exact Hu0 | exact P2 |].
    exists s3. split; [exact E3|]. split; [rewrite C3, C2, C1; reflexivity | exact P3].
Qed.

Lemma send_mn_ok l : forall s, MNL (core_of s) l -> PWc s -> exists s', send_mn s l = Ok s' /\ core_of s' = core_of s.
Proof.
  induction l as [|id r IH]; intros s HL HP; cbn [send_mn].
  - exists s. auto.
  - destruct (HL id (or_introl eq_refl)) as (t & w0 & ws & Ht & Est & Hw).
    unfold get_task. rewrite Ht. cbn [bind]. rewrite Est.
    destruct (send_worker_ok s w0 (DCompute [ctask_of t (Some 0) (w0 :: ws)]) HP (HP w0 Hw)) as (s1 & E1 & C1 & P1).
    rewrite E1. cbn [bind]. destruct (IH s1) as (s2 & E2 & C2); [rewrite C1; intros y Hy; apply HL; right; exact Hy | exact P1|].
    exists s2. split; [exact E2 | rewrite C2, C1; reflexivity].
Qed.

Lemma insert_by_prio_in c x l a : In a (insert_by_prio c x l) -> a = x \/ In a l.
Proof.
  induction l as [|h t IH]; cbn [insert_by_prio In]; [intros [H|[]]; auto|].
  match goal with |- context [if ?b then _ else _] => destruct b end; cbn [In]; [intros [H|[H|H]]; auto|].
  intros [H|H]; [auto|]. destruct (IH H); auto.
Qed.
Lemma sort_assigned_in c l a : In a (sort_assigned c l) -> In a l.
Proof.
  unfold sort_assigned. assert (G : forall acc, In a (fold_left (fun acc x => insert_by_prio c x acc) l acc) -> In a l \/ In a acc).
  { induction l as [|h t IH]; cbn [fold_left]; intros acc H; [right; exact H|].
    destruct (IH _ H) as [H1|H1]; [left; right; exact H1|]. destruct (insert_by_prio_in _ _ _ _ H1) as [->|H2]; [left; left; reflexivity | right; exact H2]. }
  intros H. destruct (G [] H) as [H1|[]]. exact H1.
Qed.
Lemma MOK_sort c c1 m : MOK c m ->
  MOK c (map (fun u => mkWU (wu_w u) (sort_assigned c1 (wu_assigned u)) (wu_prefills u) (wu_retracts u)) m).
Proof.
  intros H u Hu. apply in_map_iff in Hu. destruct Hu as (u0 & <- & Hu0). destruct (H u0 Hu0) as (H1 & H2 & H3).
  cbn [wu_w wu_assigned wu_prefills]. split; [exact H1|]. split; [|exact H3]. intros a Ha. apply H2. eapply sort_assigned_in. exact Ha.
Qed.

Definition SolOK (c : core) (sol : solution) : Prop :=
  SnOK c (sol_sn sol) /\ MnOK c (sol_mn sol) /\
  (forall i, In i (map cidx (sol_sn sol)) -> ~ In i (map cidx (sol_mn sol))) /\
  (forall w x, In w (mn_workers (sol_mn sol)) -> In x (sol_sn sol) -> ~ Wc (snd x) w).

Theorem run_scheduling_np s sol :
  WI (core_of s) -> QI none [] (core_of s) -> PWc s -> SolOK (core_of s) sol -> np (run_scheduling s sol).
Proof.
  intros HW V HP (HSn & HMn & Hdisj & Hmw). unfold run_scheduling.
  destruct (negb (perm_of_set _ _)); [reflexivity|].
  set (c := core_of s) in *.
  destruct (map_sn_ok sol (sol_sn sol) c [] HW V (MOK_nil c) HSn) as [N1 N2].
  destruct (map_sn c [] sol (sol_sn sol)) as [[c1 m1]| |] eqn:E1; [|reflexivity | discriminate N1].
  cbn [bind]. destruct (N2 c1 m1 eq_refl) as (W1 & V1 & M1 & F1).
  set (m2 := map (fun u => mkWU (wu_w u) (sort_assigned c1 (wu_assigned u)) (wu_prefills u) (wu_retracts u)) m1).
  assert (M1' : MOK c1 m2) by (apply MOK_sort; exact M1).
  assert (HMn1 : MnOK c1 (sol_mn sol)).
  { eapply MnOK_SF; [exact F1 | | | | exact HMn].
    - intros i Hi Hs. exact (Hdisj i Hs Hi).
    - intros y t (t0 & Ht0 & Hin) Ht Hm. rewrite Ht0 in Ht. inversion Ht; subst t0. exact (Hdisj _ Hin Hm).
    - intros w Hw (x & Hx & Hc). exact (Hmw w x Hw Hx Hc). }
  destruct (map_mn_ok (sol_mn sol) c1 [] W1 V1 ltac:(intros y []) HMn1) as (c2 & mn & E2 & W2 & V2 & L2 & F2).
  rewrite E2. cbn [bind].
  assert (M2 : MOK c2 m2) by (eapply MOK_SF; [exact F2 | exact M1']).
  assert (H3 : exists c3 m3,
            match queues_top_priority (c_queues c2) with
            | Some top => prefill_queues c2 m2 (sol_workers sol) 0 (length (c_queues c2)) top
            | None => Ok (c2, m2)
            end = Ok (c3, m3) /\ MOK c3 m3 /\ SF (waitT c2) (fun _ => True) (fun _ => True) c2 c3).
  { destruct (queues_top_priority (c_queues c2)) as [top|].
    - destruct (prefill_queues_ok (sol_workers sol) top (length (c_queues c2)) c2 m2 0%nat W2 V2 M2 eq_refl) as (c3 & m3 & E3 & _ & _ & M3 & F3).
      exists c3, m3. auto.
    - exists c2, m2. split; [reflexivity|]. split; [exact M2 | apply SF_refl]. }
  destruct H3 as (c3 & m3 & E3 & M3 & F3). rewrite E3. cbn [bind].
  assert (L3 : MNL c3 mn).
  { intros y Hy. destruct (L2 y Hy) as (t & w0 & ws & Ht & Est & Hw). exists t, w0, ws.
    split; [|split; [exact Est | apply (sf_wsome _ _ _ _ _ F3); exact Hw]].
    rewrite (sf_t _ _ _ _ _ F3 y); [exact Ht|]. intros (t0 & Ht0 & Hw0). rewrite Ht in Ht0. inversion Ht0; subst t0.
    unfold is_waiting in Hw0. rewrite Est in Hw0. discriminate. }
  assert (P3 : PWc (st_core s c3)).
  { intros w Hw. unfold core_of in Hw. cbn [st_core fst with_core s_core s_procs] in *. apply HP. fold c.
    destruct (find_worker (c_workers c) w) eqn:E; [discriminate|]. exfalso. apply Hw.
    apply (sf_wnone _ _ _ _ _ F3). apply (sf_wnone _ _ _ _ _ F2). apply (sf_wnone _ _ _ _ _ F1). exact E. }
  destruct (send_mapping_ok m3 (st_core s c3) M3 P3) as (s1 & E4 & C4 & P4). rewrite E4. cbn [bind].
  destruct (send_mn_ok mn s1) as (s2 & E5 & _); [rewrite C4; exact L3 | exact P4|]. rewrite E5. reflexivity.
Qed.

(** * The contract, executable
    [sol_sn sol] = classes [(rq, variant, [(worker, count)])], [sol_mn sol] = classes
    [(rq, variant, [worker set])].  All conditions are evaluated on the core the scheduler runs on. *)
Fixpoint nodupb {A} (eqb : A -> A -> bool) (l : list A) : bool :=
  match l with [] => true | h :: t => negb (existsb (eqb h) t) && nodupb eqb t end.

(** a worker with a positive count exists and is in single-node mode ([insert_sn_task], sites 120 / 102) *)
Definition sn_w_ok (c : core) (wn : wid * N) : bool :=
  N.eqb (snd wn) 0 ||
  match find_worker (c_workers c) (fst wn) with
  | Some wk => match w_assign wk with Sn _ _ _ => true | Mn _ _ => false end
  | None => false
  end.
(** a single-node class: valid request index (141 / 140), not more tasks than the queue holds
    ([take_tasks]: 135 / 137), its workers *)
Definition sn_class_okb (c : core) (x : N * N * list (wid * N)) : bool :=
  Nat.ltb (cidx x) (length (c_rqs c)) &&
  match nth_error (c_queues c) (cidx x) with Some q => N.leb (sum_counts (snd x)) (qsize q) | None => true end &&
  forallb (sn_w_ok c) (snd x).
(** no task of request [i] is under retraction *)
Definition no_retract (c : core) (i : nat) : bool :=
  forallb (fun t => negb (Nat.eqb (N.to_nat (t_rq t)) i) || match t_state t with Retracting _ => false | _ => true end) (c_tasks c).
(** a multi-node class: valid request index (140), one ready task per worker set ([take_one]: 182),
    which is not under retraction (183), no empty worker set (166) *)
Definition mn_class_okb (c : core) (x : N * N * list (list wid)) : bool :=
  Nat.ltb (cidx x) (length (c_rqs c)) &&
  match nth_error (c_queues c) (cidx x) with Some q => take_ones (length (snd x)) q | None => true end &&
  no_retract c (cidx x) &&
  forallb (fun ws => match ws with [] => false | _ :: _ => true end) (snd x).
(** a worker of a multi-node set exists, is free (120 / 112) and gets no single-node task in this round *)
Definition mn_w_ok (c : core) (sol : solution) (w : wid) : bool :=
  match find_worker (c_workers c) w with Some wk => worker_is_free wk | None => false end &&
  forallb (fun x : N * N * list (wid * N) => forallb (fun wn : wid * N => negb (N.eqb (fst wn) w) || N.eqb (snd wn) 0) (snd x)) (sol_sn sol).

Definition sol_ok (c : core) (sol : solution) : bool :=
  (* every request occurs in one class at most *)
  nodupb Nat.eqb (map cidx (sol_sn sol) ++ map cidx (sol_mn sol)) &&
  forallb (sn_class_okb c) (sol_sn sol) &&
  forallb (mn_class_okb c) (sol_mn sol) &&
  (* the worker sets are disjoint and have distinct members *)
  nodupb N.eqb (mn_workers (sol_mn sol)) &&
  forallb (mn_w_ok c sol) (mn_workers (sol_mn sol)).

Lemma nodupb_NoDup {A} (eqb : A -> A -> bool) l :
  (forall a b, eqb a b = true <-> a = b) -> nodupb eqb l = true -> NoDup l.
Proof.
  intros Heq. induction l as [|h t IH]; cbn [nodupb]; intros H; [constructor|].
  apply andb_true_iff in H. destruct H as [H1 H2]. constructor; [|apply IH; exact H2].
  intros Hin. apply negb_true_iff in H1.
  assert (X : existsb (eqb h) t = true) by (apply existsb_exists; exists h; split; [exact Hin | apply Heq; reflexivity]). congruence.
Qed.

Lemma sn_w_ok_snw c counts y : forallb (sn_w_ok c) counts = true -> Wc counts y -> snw c y.
Proof.
  intros H (n & Hin & Hn). rewrite forallb_forall in H. specialize (H _ Hin). unfold sn_w_ok in H. cbn [fst snd] in H.
  apply orb_true_iff in H. destruct H as [H|H]; [apply N.eqb_eq in H; lia|].
  destruct (find_worker (c_workers c) y) as [wk|] eqn:E; [|discriminate].
  destruct (w_assign wk) as [a p f|] eqn:Ea; [|discriminate]. exists wk, a, p, f. auto.
Qed.

Lemma no_retract_NR c i : no_retract c i = true -> NR c i.
Proof.
  intros H id t w Hf Hr Est. unfold no_retract in H. rewrite forallb_forall in H.
  specialize (H t (proj1 (find_task_some _ _ _ Hf))). rewrite Hr, Nat.eqb_refl, Est in H. discriminate.
Qed.

Theorem sol_ok_SolOK c sol : sol_ok c sol = true -> SolOK c sol.
Proof.
  unfold sol_ok. intros H.
  apply andb_true_iff in H. destruct H as [H H5]. apply andb_true_iff in H. destruct H as [H H4].
  apply andb_true_iff in H. destruct H as [H H3]. apply andb_true_iff in H. destruct H as [H1 H2].
  assert (ND : NoDup (map cidx (sol_sn sol) ++ map cidx (sol_mn sol))) by (eapply nodupb_NoDup; [apply Nat.eqb_eq | exact H1]).
  assert (NW : NoDup (mn_workers (sol_mn sol))) by (eapply nodupb_NoDup; [apply N.eqb_eq | exact H4]).
  rewrite forallb_forall in H2, H3, H5.
  split; [|split; [|split]].
  - split; [exact (NoDup_app_l _ _ ND)|]. apply Forall_forall. intros x Hx. specialize (H2 x Hx). unfold sn_class_okb in H2.
    apply andb_true_iff in H2. destruct H2 as [H2 Hc]. apply andb_true_iff in H2. destruct H2 as [Ha Hb].
    split; [apply Nat.ltb_lt; exact Ha|]. split.
    + intros q Hq. rewrite Hq in Hb. apply N.leb_le. exact Hb.
    + intros y Hy. eapply sn_w_ok_snw; eassumption.
  - split; [exact (NoDup_app_r _ _ ND)|]. split; [|split; [exact NW|]].
    + apply Forall_forall. intros x Hx. specialize (H3 x Hx). unfold mn_class_okb in H3.
      apply andb_true_iff in H3. destruct H3 as [H3 Hd]. apply andb_true_iff in H3. destruct H3 as [H3 Hc].
      apply andb_true_iff in H3. destruct H3 as [Ha Hb].
      split; [apply Nat.ltb_lt; exact Ha|]. split; [|split; [apply no_retract_NR; exact Hc|]].
      * intros q Hq. rewrite Hq in Hb. exact Hb.
      * apply Forall_forall. intros ws Hws. rewrite forallb_forall in Hd. specialize (Hd ws Hws). destruct ws; [discriminate | discriminate].
    + intros w Hw. specialize (H5 w Hw). unfold mn_w_ok in H5. apply andb_true_iff in H5. destruct H5 as [H5 _].
      destruct (find_worker (c_workers c) w) as [wk|] eqn:E; [|discriminate]. exists wk. auto.
  - intros i Hs Hm. exact (NoDup_app_disj _ _ _ ND Hs Hm).
  - intros w x Hw Hx (n & Hin & Hn). specialize (H5 w Hw). unfold mn_w_ok in H5. apply andb_true_iff in H5. destruct H5 as [_ H5].
    rewrite forallb_forall in H5. specialize (H5 x Hx). rewrite forallb_forall in H5. specialize (H5 _ Hin). cbn [fst snd] in H5.
    rewrite N.eqb_refl in H5. cbn in H5. apply N.eqb_eq in H5. lia.
Qed.

Theorem scheduling_never_panics : forall s sol,
  INV s -> PW s -> sol_ok (s_core s) sol = true -> is_panic (step s (OpSched sol)) = false.
Proof.
  intros s sol HI HP Hok. cbn [step]. destruct (c_flag (s_core s)); [|reflexivity].
  apply (run_scheduling_np (s, []) sol).
  - exact (inv_w _ HI).
  - exact (inv_q _ HI).
  - apply NoPanicC1.PW_PWc. exact HP.
  - apply sol_ok_SolOK. exact Hok.
Qed.
