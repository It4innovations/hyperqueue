(** C03 across a restart, part 4: whole histories.

    [step_EDG]: what one operation does to the dependency edges the core keeps - an edge survives
    or its dependent gets a terminal event in this step; a new edge points to a task that is in
    the core after the step.
    [history_dep_closed]: for EVERY history [run (init_sys r m) ops = Ok (s, outs)] (hypotheses
    [op_wf], [run_fresh] as for all invariants of the development) the event stream [outs] is
    dependency-closed w.r.t. the union over all states of the history of the edges the core keeps
    ([hdep]): when an event kills [t], every task that depends on [t] in ANY state of the history
    (earlier or later) is named by a terminal event up to and including that event.  A server
    restarted from any prefix of the journal therefore never finds a task with a dead dependency
    but without terminal record. *)
From HQ Require Import Base.Prelude Cluster.Types Cluster.Core Cluster.Sys Cluster.ProofsFinal Cluster.BijBase Cluster.BijFinal Cluster.ProofsOnce Cluster.RejHyp Cluster.InvQStep Cluster.InvDSpec Cluster.InvBundle Cluster.StartFin2 Cluster.DepOrderBase Cluster.DepOrderReact Cluster.DepOrderStep.
Local Open Scope N_scope.

Arguments N.add : simpl never.
Arguments N.sub : simpl never.

Record EDG (s s' : sys) (outs : list out) : Prop := mkEDG {
  edg_fwd : forall x t, cdep (s_core s) x t -> cdep (s_core s') x t \/ In x (terminal_ids outs);
  edg_back : forall x t, cdep (s_core s') x t -> cdep (s_core s) x t \/ fm (s_core s') t <> None
}.

Lemma EDG_egrow s s' outs : egrow (fm (s_core s)) (fm (s_core s')) -> EDG s s' outs.
Proof.
  intros [A B]. constructor.
  - intros x t (tx & Ex & Ht). left. destruct (A _ _ Ex) as (tx' & Ex' & Ed). exists tx'. split; [exact Ex' | rewrite Ed; exact Ht].
  - intros x t (tx' & Ex' & Ht). destruct (B _ _ Ex') as [(tx & Ex & Ed)|Hdom].
    + left. exists tx. split; [exact Ex | rewrite <- Ed; exact Ht].
    + right. apply Hdom. exact Ht.
Qed.

Lemma EDG_LK s s' outs : W (s, []) -> LK (s, []) (s', outs) -> EDG s s' outs.
Proof.
  intros HW L. destruct (L HW) as (HW' & S & ext & E & _ & V). cbn [snd app] in E. subst ext. constructor.
  - exact (cdep_step _ _ _ (w_cb _ HW) (w_cb _ HW') S V).
  - intros x t (tx' & Ex' & Ht). left. destruct (S _ _ Ex') as (tx & Ex & Ed). exists tx. split; [exact Ex | rewrite <- Ed; exact Ht].
Qed.

Theorem step_EDG s o s' outs : INV s -> op_wf o -> step s o = Ok (s', outs) -> EDG s s' outs.
Proof.
  intros HI Hwf H. destruct (step_cases _ _ _ _ HI H) as [L|[_ G]].
  - exact (EDG_LK _ _ _ (INV_W _ HI) L).
  - apply EDG_egrow. exact (G Hwf).
Qed.

Lemma INV_fresh s : INV s -> fresh (s, []).
Proof. apply inv_fresh. Qed.

Lemma step_dead s o s' outs t : INV s -> step s o = Ok (s', outs) -> dead (s, []) t -> dead (s', []) t.
Proof.
  intros HI H D. change (dead (s', outs) t). eapply G_dead; [exact (inv_fresh _ HI) | eapply G_step; [exact (inv_fresh _ HI) | exact H] | exact D].
Qed.

Lemma step_killed s o s' outs t :
  INV s -> step s o = Ok (s', outs) -> In t (terminal_ids outs) -> dead (s', []) t /\ ~ dead (s, []) t.
Proof.
  intros HI H Hin. destruct (TE_step _ _ _ _ (inv_fresh _ HI) H t) as [T1 T2]. cbn [snd] in T1, T2.
  assert (Hc : (1 <= tcount outs t)%nat) by (unfold tcount; apply (count_occ_In tid_dec) in Hin; lia).
  assert (Z : tcount [] t = 0%nat) by reflexivity. rewrite Z in T1, T2. split.
  - destruct T2 as [E|[_ D]]; [lia | exact D].
  - intros D. destruct (T1 D) as [_ E]. lia.
Qed.

Lemma dead_not_in_core s t : INV s -> dead (s, []) t -> fm (s_core s) t = None.
Proof.
  intros HI D. destruct (fm (s_core s) t) as [tt|] eqn:E; [|reflexivity]. exfalso.
  apply (active_not_dead (s, []) t); [|exact D]. eapply core_task_active; [exact (inv_cb _ HI) | exact E].
Qed.

Lemma edge_to_dead s o s1 o1 x t :
  INV s -> op_wf o -> step s o = Ok (s1, o1) -> INV s1 -> dead (s1, []) t ->
  cdep (s_core s1) x t -> cdep (s_core s) x t.
Proof.
  intros HI Hw H1 HI1 D Hc. destruct (edg_back _ _ _ (step_EDG _ _ _ _ HI Hw H1) x t Hc) as [A|A]; [exact A|].
  exfalso. apply A. apply dead_not_in_core; assumption.
Qed.

Lemma along_head (P : sys -> Prop) s ops : along P s ops -> P s.
Proof. destruct ops; cbn [along]; intros H; apply H. Qed.

Lemma run_cons s o r s' outs :
  run s (o :: r) = Ok (s', outs) ->
  exists s1 o1 o2, step s o = Ok (s1, o1) /\ run s1 r = Ok (s', o2) /\ outs = o1 ++ o2.
Proof.
  cbn [run]. intros H. apply bind_ok in H. destruct H as ([s1 o1] & H1 & H). apply bind_ok in H. destruct H as ([s2 o2] & H2 & H).
  inversion H; subst. exists s1, o1, o2. split; [exact H1 | split; [exact H2 | reflexivity]].
Qed.

Definition hd (s : sys) (ops : list op) : deprel :=
  fun x t => exists ops1 ops2 s1 o1, ops = ops1 ++ ops2 /\ run s ops1 = Ok (s1, o1) /\ cdep (s_core s1) x t.

Lemma hd_inv s ops x t :
  hd s ops x t ->
  cdep (s_core s) x t \/ exists o r s1 o1, ops = o :: r /\ step s o = Ok (s1, o1) /\ hd s1 r x t.
Proof.
  intros (ops1 & ops2 & si & oi & Eo & Hr & Hc). destruct ops1 as [|o ops1].
  - left. injection Hr as <- _. exact Hc.
  - right. destruct (run_cons _ _ _ _ _ Hr) as (s1 & o1 & o2 & H1 & Hr1 & _).
    exists o, (ops1 ++ ops2), s1, o1. split; [exact Eo|]. split; [exact H1|].
    exists ops1, ops2, si, o2. split; [reflexivity | split; [exact Hr1 | exact Hc]].
Qed.

Lemma hd_cons s o r s1 o1 x t :
  step s o = Ok (s1, o1) -> hd s (o :: r) x t -> cdep (s_core s) x t \/ hd s1 r x t.
Proof.
  intros H1 Hh. destruct (hd_inv _ _ _ _ Hh) as [A|(o' & r' & s1' & o1' & E & H1' & Hh1)]; [left; exact A | right].
  injection E as <- <-. rewrite H1 in H1'. injection H1' as <- <-. exact Hh1.
Qed.

Lemma hd_dead ops : forall s x t,
  along INV s ops -> Forall op_wf ops -> dead (s, []) t -> hd s ops x t -> cdep (s_core s) x t.
Proof.
  induction ops as [|o r IH]; intros s x t Hal Hwf D Hh;
    destruct (hd_inv _ _ _ _ Hh) as [A|(o' & r' & s1 & o1 & E & H1 & Hh1)]; try exact A; [discriminate E|].
  injection E as <- <-. inversion Hwf as [|? ? Hw1 Hw2]; subst. cbn [along] in Hal. destruct Hal as [HI Hal]. rewrite H1 in Hal.
  pose proof (step_dead _ _ _ _ t HI H1 D) as D1.
  eapply edge_to_dead; [exact HI | exact Hw1 | exact H1 | exact (along_head _ _ _ Hal) | exact D1|].
  apply (IH s1); assumption.
Qed.

Lemma run_hd ops : forall s (T : list tid) (Dep : deprel) s' outs,
  along INV s ops -> Forall op_wf ops ->
  (forall x t, Dep x t -> In x T \/ dead (s, []) t \/ hd s ops x t) ->
  run s ops = Ok (s', outs) -> jc Dep (fun x => In x T) outs.
Proof.
  induction ops as [|o r IH]; intros s T Dep s' outs Hal Hwf HD H; [inversion H; subst; exact I|].
  destruct (run_cons _ _ _ _ _ H) as (s1 & o1 & o2 & H1 & H2 & ->).
  inversion Hwf as [|? ? Hw1 Hw2]; subst. cbn [along] in Hal. destruct Hal as [HI Hal]. rewrite H1 in Hal.
  apply jc_app. split.
  - (* the events of this step are closed w.r.t. the edges of [s]; a later edge to a task killed
       here was an edge of [s] already *)
    eapply jc_weaken; [| |exact (step_dep_closed_jc _ _ _ _ HI H1)]; [|intros x []].
    intros x t Hkill Hx. destruct (step_killed _ _ _ _ t HI H1 Hkill) as [D1 ND].
    destruct (HD _ _ Hx) as [A|[A|Hh]]; [right; exact A | contradiction | left].
    destruct (hd_cons _ _ _ _ _ _ _ H1 Hh) as [Hc|Hh1]; [exact Hc|].
    eapply edge_to_dead; [exact HI | exact Hw1 | exact H1 | exact (along_head _ _ _ Hal) | exact D1|].
    eapply hd_dead; [exact Hal | exact Hw2 | exact D1 | exact Hh1].
  - eapply jc_ext; [|apply (IH s1 (terminal_ids o1 ++ T) Dep s' o2 Hal Hw2); [|exact H2]].
    + intros x Hx. apply in_app_iff in Hx. exact Hx.
    + intros x t Hx. destruct (HD _ _ Hx) as [A|[A|Hh]].
      * left. apply in_app_iff. right; exact A.
      * right. left. exact (step_dead _ _ _ _ t HI H1 A).
      * destruct (hd_cons _ _ _ _ _ _ _ H1 Hh) as [Hc|Hh1]; [|right; right; exact Hh1].
        destruct (edg_fwd _ _ _ (step_EDG _ _ _ _ HI Hw1 H1) x t Hc) as [B|B]; [|left; apply in_app_iff; left; exact B].
        right. right. exists [], r, s1, []. split; [reflexivity|]. split; [reflexivity | exact B].
Qed.

Definition hdep (reserve maxfill : N) (ops : list op) : deprel := hd (init_sys reserve maxfill) ops.

Theorem history_dep_closed_jc ops reserve maxfill s outs :
  Forall op_wf ops -> run_fresh (init_sys reserve maxfill) ops = true ->
  run (init_sys reserve maxfill) ops = Ok (s, outs) ->
  jc (hdep reserve maxfill ops) NoT outs.
Proof.
  intros Hwf Hf H.
  eapply jc_ext; [|eapply (run_hd ops (init_sys reserve maxfill) [] (hdep reserve maxfill ops)); [apply along_INV; assumption | exact Hwf | | exact H]].
  - intros x [].
  - intros x t Hx. right. right. exact Hx.
Qed.

(** C03 across a restart, for every history: whenever the journal [outs] has an event that kills
    [t] (EvFailed t, EvCanceled / EvAborted naming t), every task [x] that depends on [t] in the
    core in ANY state [s1] of the history (after any prefix [ops1] of the operations) is named by
    a terminal event of the journal up to and including that event.  So no prefix of the journal
    contains a dead task one of whose dependents lacks its terminal record. *)
Theorem history_dep_closed ops reserve maxfill s outs :
  Forall op_wf ops -> run_fresh (init_sys reserve maxfill) ops = true ->
  run (init_sys reserve maxfill) ops = Ok (s, outs) ->
  forall pre e post t, outs = pre ++ OEv e :: post -> In t (kill_ids (OEv e)) ->
  forall ops1 ops2 s1 outs1 x tx, ops = ops1 ++ ops2 -> run (init_sys reserve maxfill) ops1 = Ok (s1, outs1) ->
    find_task (c_tasks (s_core s1)) x = Some tx -> In t (t_deps tx) ->
    In x (terminal_ids (pre ++ [OEv e])).
Proof.
  intros Hwf Hf H pre e post t E Ht ops1 ops2 s1 outs1 x tx Eo Hr Ex Hd.
  pose proof (history_dep_closed_jc _ _ _ _ _ Hwf Hf H) as J.
  destruct (proj1 (jc_decomp _ _ _) J pre (OEv e) post t x E Ht) as [A|[]]; [|exact A].
  exists ops1, ops2, s1, outs1. split; [exact Eo|]. split; [exact Hr|]. exists tx. split; assumption.
Qed.

Print Assumptions history_dep_closed.
