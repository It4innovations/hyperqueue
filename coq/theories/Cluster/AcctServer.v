(** C05, accounting conjunct, part 4: worker registration and loss, one scheduling round.  The
    scheduling round needs the executable hypothesis [sched_fits] ("simulating the round, every
    [insert_sn_task] of [map_one] finds [res_fits free request]"): the cluster model takes the solver's
    answer as an unconstrained witness. *)
From HQ Require Import Base.Prelude Cluster.Types Cluster.Core Cluster.Reactor Cluster.Worker Cluster.Server Cluster.Sys Cluster.Monitors Cluster.ProofsJob Cluster.ProofsStep Cluster.BijBase Cluster.BijCore Cluster.BijHq Cluster.BijSt Cluster.CrashFrame Cluster.RejHyp Cluster.InvWBase Cluster.InvWCore Cluster.InvWX1 Cluster.InvQBase Cluster.InvQTake Cluster.InvQInv Cluster.InvQOps Cluster.InvQReact Cluster.InvQSched Cluster.AcctBase Cluster.AcctReact Cluster.AcctReact2.
From HQ Require Import Cluster.ReactSplit.
From HQ Require Import Cluster.StepShape.
From HQ Require Import Cluster.ModelFacts.
From Coq Require Import ZArith Lia.
Local Open Scope N_scope.

Arguments N.add : simpl never.
Arguments N.sub : simpl never.

Lemma on_new_worker_AI rqf rqs s rs g s' : AIS rqf rqs s -> on_new_worker s rs g = Ok s' -> AIS rqf rqs s'.
Proof.
  unfold on_new_worker. intros HA H. injection H as <-. unfold AIS. cbn.
  apply AI_upd_worker; [exact HA | apply accw_new].
Qed.

Lemma lost_prefilled_AI rqf rqs l : forall c c', AI rqf rqs c -> lost_prefilled c l = Ok c' -> AI rqf rqs c'.
Proof.
  induction l as [|id r IH]; cbn [lost_prefilled]; intros c c' HA H; [injection H as <-; exact HA|].
  apply bind_ok in H as (t & Ht & H). apply get_task_find in Ht. inv_binds H. eapply IH; [|exact H].
  apply AI_with_queues. eapply AI_upd_same; [exact HA | exact Ht | reflexivity | reflexivity].
Qed.

Lemma lost_assigned_AI rqf rqs l : forall c running ret c' running' ret',
  AI rqf rqs c -> lost_assigned c l running ret = Ok (c', running', ret') -> AI rqf rqs c'.
Proof.
  induction l as [|id r IH]; cbn [lost_assigned]; intros c running ret c' running' ret' HA H; [injection H as <- _ _; exact HA|].
  apply bind_ok in H as (t & Ht & H). apply get_task_find in Ht. apply bind_ok in H as ([[c1 t1] running1] & Hx & H). inv_binds H.
  assert (E1 : AI rqf rqs c1 /\ t_id t1 = t_id t /\ t_rq t1 = t_rq t).
  { destruct (t_state t); try (injection Hx as <- <- _; auto).
    destruct (find_redirect (c_redirects c) id); [|discriminate]. injection Hx as <- <- _. auto. }
  destruct E1 as (A1 & Ei & Er). eapply IH; [|exact H]. apply AI_with_queues, AI_upd_task; [exact A1|].
  cbn [t_id t_rq with_inst]. rewrite Ei, Er. apply (AI_find _ _ _ _ _ HA Ht).
Qed.

Lemma lost_retracting_AI rqf rqs l : forall s w s', AIS rqf rqs s -> lost_retracting s w l = Ok s' -> AIS rqf rqs s'.
Proof.
  induction l as [|id r IH]; cbn [lost_retracting]; intros s w s' HA H; [injection H as <-; exact HA|].
  apply bind_ok in H as (t & Ht & H). apply get_task_find in Ht.
  destruct (t_state t); try (eapply IH; eassumption).
  destruct (N.eqb w w0); [|eapply IH; eassumption].
  destruct (find_redirect (c_redirects (core_of s)) id) as [[target rv]|].
  - apply bind_ok in H as (s1 & Hs1 & H). eapply IH; [|exact H]. unfold AIS. rewrite (send_worker_core _ _ _ _ Hs1). cbn.
    eapply AI_upd_same; [exact HA | exact Ht | reflexivity | reflexivity].
  - eapply IH; [|exact H]. unfold AIS. cbn. eapply AI_upd_same; [exact HA | exact Ht | reflexivity | reflexivity].
Qed.

Lemma lost_fail_running_AI rqf rqs l : forall s reason s', AIS rqf rqs s -> lost_fail_running s reason l = Ok s' -> AIS rqf rqs s'.
Proof.
  intros s reason s' HA H.
  refine (lost_fail_running_rel (fun a b : st => AIS rqf rqs a -> AIS rqf rqs b) _ _ _ _ l s reason s' H HA).
  - intros a P. exact P.
  - intros a b c A B P. exact (B (A P)).
  - intros a id t Ef HA0. unfold AIS. cbn. eapply AI_upd_same; [exact HA0 | exact Ef | reflexivity | reflexivity].
  - intros a id k b _ Hf HA0. eapply task_failed_AI; [exact HA0 | exact Hf].
Qed.

Lemma on_remove_worker_AI rqf rqs s w reason ao po to s' :
  AIS rqf rqs s -> on_remove_worker s w reason ao po to = Ok s' -> AIS rqf rqs s'.
Proof.
  unfold on_remove_worker. intros HA H. cbv zeta in H.
  destruct (find_worker (c_workers (core_of s)) w) as [wk|] eqn:Ew; [|discriminate].
  apply bind_ok in H as ([[c2 running] retracted] & Hx & H).
  assert (A0 : AI rqf rqs (with_workers (core_of s) (del_worker (c_workers (core_of s)) w))).
  { destruct HA as (A & R & T). split; [apply ACCW_del; exact A | split; [exact R | exact T]]. }
  assert (A2 : AI rqf rqs c2).
  { destruct (w_assign wk) as [a p f|mt root].
    - destruct (negb (perm_of_set ao a && perm_of_set po p)); [discriminate|].
      apply bind_ok in Hx as (c1 & Hc1 & Hx). eapply lost_assigned_AI; [eapply lost_prefilled_AI; [exact A0 | exact Hc1] | exact Hx].
    - apply bind_ok in Hx as (t & Ht & Hx). apply get_task_find in Ht.
      destruct (t_state t) as [n|w1 rv|w1|w1|w1 rv|[|w0 rest]|]; try discriminate.
      pose proof (proj1 (AI_find _ _ _ _ _ A0 Ht)) as Elk.
      destruct (N.eqb w w0); [|injection Hx as <- _ _; apply AI_upd_task; [exact A0 | exact Elk]].
      apply bind_ok in Hx as (c1 & Hc1 & Hx). inv_binds Hx. injection Hx as <- _ _.
      apply AI_with_queues, AI_upd_task; [eapply reset_mn_all_AI; [exact A0 | exact Hc1] | exact Elk]. }
  destruct (negb (perm_of_set to (map t_id (c_tasks c2)))); [discriminate|].
  apply bind_ok in H as (s3 & Hs3 & H). apply bind_ok in H as (s4 & Hs4 & H).
  apply bind_ok in H as (s6 & Hs6 & H). apply bind_ok in H as (s7 & Hs7 & H). injection H as <-.
  apply ask_scheduling_AI. eapply lost_fail_running_AI; [|exact Hs7].
  destruct (process_worker_lost_active _ _ _ _ _ Hs6) as [C6 _]. unfold core_same in C6. unfold AIS. rewrite C6.
  change (AIS rqf rqs s4). eapply process_retracted_AI; [|exact Hs4]. eapply lost_retracting_AI; [|exact Hs3]. exact A2.
Qed.

Definition map_one_fits (c : core) (w : wid) (rqres : list N) : bool :=
  match find_worker (c_workers c) w with Some wk => wfits wk rqres | None => true end.

Fixpoint rr_pass_fits (c : core) (m : list wupd) (counts : list (wid * N)) (tasks : list tid) (v : N) (rqres : list N) : bool :=
  match counts, tasks with
  | _, [] => true
  | [], _ => true
  | (w, n) :: r, id :: tl =>
      if N.ltb 0 n then
        map_one_fits c w rqres
        && match map_one c m id w v rqres with
           | Ok (c1, m1) => rr_pass_fits c1 m1 r tl v rqres
           | _ => true
           end
      else rr_pass_fits c m r tasks v rqres
  end.

Fixpoint rr_loop_fits (fuel : nat) (c : core) (m : list wupd) (counts : list (wid * N)) (tasks : list tid) (v : N) (rqres : list N) : bool :=
  match tasks with
  | [] => true
  | _ =>
      match fuel with
      | O => true
      | S k =>
          rr_pass_fits c m counts tasks v rqres
          && match rr_pass c m counts tasks v rqres with
             | Ok (c1, m1, counts1, rest) => rr_loop_fits k c1 m1 counts1 rest v rqres
             | _ => true
             end
      end
  end.

Fixpoint map_sn_fits (c : core) (m : list wupd) (sol : solution) (l : list (N * N * list (wid * N))) : bool :=
  match l with
  | [] => true
  | (rq, v, counts) :: r =>
      match get_rq (c_rqs c) rq, nth_queue (c_queues c) (N.to_nat rq) with
      | Ok rqd, Ok q =>
          match q_take_tasks q (sum_counts counts) (pf_order_of sol rq) with
          | Ok (tasks, q') =>
              let c1 := with_queues c (set_queue (c_queues c) (N.to_nat rq) q') in
              rr_loop_fits (S (length tasks)) c1 m counts tasks v (rq_res rqd)
              && match rr_loop (S (length tasks)) c1 m counts tasks v (rq_res rqd) with
                 | Ok (c2, m2) => map_sn_fits c2 m2 sol r
                 | _ => true
                 end
          | _ => true
          end
      | _, _ => true
      end
  end.

Definition sched_fits (c : core) (sol : solution) : bool := map_sn_fits c [] sol (sol_sn sol).

Lemma map_one_AI rqf rqs c m id w v rqres c' m' :
  AI rqf rqs c -> rqres = rqf id -> map_one_fits c w rqres = true -> map_one c m id w v rqres = Ok (c', m') -> AI rqf rqs c'.
Proof.
  unfold map_one, map_one_fits. intros HA -> HF H.
  apply bind_ok in H as (wk & Hw & H). apply get_worker_find in Hw. rewrite Hw in HF. apply bind_ok in H as (wk' & Hw' & H).
  assert (A0 : AI rqf rqs (upd_worker c wk')).
  { apply AI_upd_worker; [exact HA|]. apply (accw_insert_iff _ _ _ _ (AI_worker _ _ _ _ _ HA Hw) Hw'). exact HF. }
  apply bind_ok in H as (t & Ht & H). apply get_task_find in Ht.
  destruct (t_state t) as [n|w1 rv|old|old|w1 rv|ws|]; try discriminate.
  - injection H as <- _. eapply AI_with_state; eassumption.
  - destruct (find_worker (c_workers (upd_worker c wk')) old) as [wo|] eqn:Eo; [|discriminate].
    apply bind_ok in H as (wo' & Hwo' & H). destruct (find_redirect _ id); [discriminate|]. injection H as <- _.
    eapply AI_with_state; [apply AI_with_redirects, AI_upd_worker; [exact A0|] | exact Ht].
    eapply accw_remove_prefill; [exact (AI_worker _ _ _ _ _ A0 Eo) | exact Hwo'].
  - destruct (find_redirect (c_redirects (upd_worker c wk')) id) as [[ot vo]|]; inv_binds H; injection H as <- _; [|exact A0].
    eapply AI_remove_sn; [exact A0 | eassumption.. |]. eapply (AI_get_rq _ _ _ id t); [exact A0 | exact Ht | eassumption].
Qed.

Lemma rr_pass_AI rqf rqs counts : forall c m tasks v rqres c' m' counts' rest,
  AI rqf rqs c -> Forall (fun id => rqres = rqf id) tasks -> rr_pass_fits c m counts tasks v rqres = true ->
  rr_pass c m counts tasks v rqres = Ok (c', m', counts', rest) ->
  AI rqf rqs c' /\ Forall (fun id => rqres = rqf id) rest.
Proof.
  induction counts as [|[w n] r IH]; intros c m tasks v rqres c' m' counts' rest HA HT HF H.
  - destruct tasks; injection H as <- _ _ <-; split; assumption.
  - destruct tasks as [|id tl]; cbn [rr_pass rr_pass_fits] in H, HF; [injection H as <- _ _ <-; split; assumption|].
    destruct (N.ltb 0 n).
    + apply bind_ok in H as ([c1 m1] & Hx & H). apply bind_ok in H as ([[[c2 m2] r'] tl'] & Hy & H). injection H as <- <- <- <-.
      apply andb_true_iff in HF as [HF1 HF2]. rewrite Hx in HF2.
      eapply IH; [|exact (Forall_inv_tail HT) | exact HF2 | exact Hy].
      eapply map_one_AI; [exact HA | exact (Forall_inv HT) | exact HF1 | exact Hx].
    + apply bind_ok in H as ([[[c2 m2] r'] tl'] & Hy & H). injection H as <- <- <- <-. eapply IH; eassumption.
Qed.

Lemma rr_loop_AI rqf rqs fuel : forall c m counts tasks v rqres c' m',
  AI rqf rqs c -> Forall (fun id => rqres = rqf id) tasks -> rr_loop_fits fuel c m counts tasks v rqres = true ->
  rr_loop fuel c m counts tasks v rqres = Ok (c', m') -> AI rqf rqs c'.
Proof.
  induction fuel as [|k IH]; intros c m counts tasks v rqres c' m' HA HT HF H; destruct tasks as [|id tl]; cbn [rr_loop rr_loop_fits] in H, HF;
    try (injection H as <- _; exact HA); try discriminate.
  apply bind_ok in H as ([[[c1 m1] counts1] rest] & Hx & H).
  apply andb_true_iff in HF as [HF1 HF2]. rewrite Hx in HF2.
  destruct (rr_pass_AI _ _ _ _ _ _ _ _ _ _ _ _ HA HT HF1 Hx) as [A1 T1]. eapply IH; eassumption.
Qed.

Lemma map_sn_AI rqf rqs sol l : forall c m c' m',
  AI rqf rqs c -> QI none [] c -> map_sn_fits c m sol l = true -> map_sn c m sol l = Ok (c', m') -> AI rqf rqs c'.
Proof.
  induction l as [|[[rq v] counts] r IH]; cbn [map_sn map_sn_fits]; intros c m c' m' HA V HF H; [injection H as <- _; exact HA|].
  apply bind_ok in H as (rqd & Hrqd & H). apply bind_ok in H as (q & Hq & H).
  apply bind_ok in H as ([tasks q'] & Hx & H). apply bind_ok in H as ([c2 m2] & Hy & H).
  rewrite Hrqd, Hq, Hx in HF. cbv zeta in HF. apply andb_true_iff in HF as [HF1 HF2]. rewrite Hy in HF2.
  apply nth_queue_ok in Hq.
  pose proof (nth_error_Forall _ _ _ _ (qv_wf _ _ _ _ _ _ V) Hq) as W.
  destruct (q_take_tasks_D _ _ _ _ _ W Hx) as [T ND].
  assert (HT : Forall (fun id => rq_res rqd = rqf id) tasks).
  { rewrite Forall_forall. intros x Hin.
    destruct (qv_live _ _ _ _ _ _ V _ _ x Hq (TakeQ_taken_member _ _ _ _ T Hin)) as (t & Hf & Hi).
    apply N2Nat.inj in Hi. rewrite <- Hi in Hrqd. exact (AI_get_rq _ _ _ _ _ _ HA Hf Hrqd). }
  eapply IH; [| |exact HF2 | exact H].
  - eapply rr_loop_AI; [|exact HT | exact HF1 | exact Hy]. exact HA.
  - eapply rr_loop_QI; [| |exact Hy].
    + apply ND. eapply QV_uniq; [exact V | exact Hq].
    + unfold QI. cbn [c_tasks c_queues c_redirects c_rqs with_queues]. eapply QV_take; eassumption.
Qed.

(** The multi-node mapping and the proactive filling do not touch a counter. *)
Lemma set_mn_workers_AI rqf rqs l : forall c id first c', AI rqf rqs c -> set_mn_workers c id l first = Ok c' -> AI rqf rqs c'.
Proof.
  induction l as [|w r IH]; cbn [set_mn_workers]; intros c id first c' HA H; [injection H as <-; exact HA|].
  inv_binds H. eapply IH; [|exact H]. apply AI_upd_worker; [exact HA | eapply accw_set_mn; eassumption].
Qed.

Lemma map_mn_sets_AI rqf rqs sets : forall c rq mn c' mn', AI rqf rqs c -> map_mn_sets c rq mn sets = Ok (c', mn') -> AI rqf rqs c'.
Proof.
  induction sets as [|ws r IH]; cbn [map_mn_sets]; intros c rq mn c' mn' HA H; [injection H as <- _; exact HA|].
  step_bind H. destruct (q_take_one _) as [[id q']|]; [|discriminate].
  apply bind_ok in H as (c2 & Hc2 & H). apply bind_ok in H as (t & Ht & H). apply get_task_find in Ht.
  destruct (t_state t) as [[|n]| | | | | |]; try discriminate.
  eapply IH; [|exact H]. eapply AI_with_state; [|exact Ht]. eapply set_mn_workers_AI; [|exact Hc2]. exact HA.
Qed.

Lemma map_mn_AI rqf rqs l : forall c mn c' mn', AI rqf rqs c -> map_mn c mn l = Ok (c', mn') -> AI rqf rqs c'.
Proof.
  intros c mn c' mn' HA H.
  exact (map_mn_lift (fun c c' => AI rqf rqs c -> AI rqf rqs c') (fun _ X => X) (fun _ _ _ A B X => B (A X))
           (fun _ _ _ _ _ _ H1 X => map_mn_sets_AI rqf rqs _ _ _ _ _ _ X H1) l c mn c' mn' H HA).
Qed.

Lemma prefill_mark_AI rqf rqs l : forall c w c', AI rqf rqs c -> prefill_mark c w l = Ok c' -> AI rqf rqs c'.
Proof.
  induction l as [|id r IH]; cbn [prefill_mark]; intros c w c' HA H; [injection H as <-; exact HA|].
  apply bind_ok in H as (t & Ht & H). apply get_task_find in Ht. destruct (negb (is_waiting t)); [discriminate|].
  apply bind_ok in H as (wk & Hw & H). apply bind_ok in H as (wk' & Hw' & H). eapply IH; [|exact H].
  apply AI_upd_worker; [eapply AI_with_state; eassumption|].
  eapply accw_insert_prefill; [exact (AI_worker _ _ _ _ _ HA (get_worker_find _ _ _ Hw)) | exact Hw'].
Qed.

Lemma prefill_queues_AI rqf rqs n : forall c m worder qi top c' m',
  AI rqf rqs c -> prefill_queues c m worder qi n top = Ok (c', m') -> AI rqf rqs c'.
Proof.
  intros c m worder qi top c' m' HA H.
  exact (prefill_queues_lift (fun c c' => AI rqf rqs c -> AI rqf rqs c') (fun _ X => X) (fun _ _ _ A B X => B (A X)) (fun _ _ X => X)
           (fun _ _ _ _ H1 X => prefill_mark_AI rqf rqs _ _ _ _ X H1) n c m worder qi top c' m' H HA).
Qed.

Lemma run_scheduling_AI rqf rqs s sol s' :
  AIS rqf rqs s -> QI none [] (core_of s) -> sched_fits (core_of s) sol = true -> run_scheduling s sol = Ok s' -> AIS rqf rqs s'.
Proof.
  unfold run_scheduling, sched_fits. intros HA V HF H. cbv zeta in H. destruct (negb (perm_of_set _ _)); [discriminate|].
  apply bind_ok in H as ([c1 m1] & H1 & H). apply bind_ok in H as ([c2 mn] & H2 & H). apply bind_ok in H as ([c3 m3] & H3 & H).
  apply bind_ok in H as (s1 & H4 & H). apply bind_ok in H as (s2 & H5 & H). injection H as <-.
  pose proof (map_sn_AI _ _ _ _ _ _ _ _ HA V HF H1) as A1.
  pose proof (map_mn_AI _ _ _ _ _ _ _ A1 H2) as A2.
  assert (A3 : AI rqf rqs c3).
  { destruct (queues_top_priority (c_queues c2)); [|injection H3 as <- _; exact A2]. eapply prefill_queues_AI; eassumption. }
  unfold AIS. cbn. rewrite (send_mn_core _ _ _ H5), (send_mapping_core _ _ _ H4). exact A3.
Qed.
