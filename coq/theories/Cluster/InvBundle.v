(** All proved invariants of a reachable state in one record - the interface for the no-panic
    proofs (C09).  Hypotheses on the history: [op_wf] and [run_fresh] (RejHyp.v). *)
From HQ Require Import Base.Prelude Cluster.Types Cluster.Core Cluster.Reactor Cluster.Worker Cluster.Server Cluster.Sys Cluster.Monitors Cluster.ProofsJob Cluster.ProofsStep Cluster.ProofsFinal Cluster.BijBase Cluster.BijCore Cluster.BijReact Cluster.BijFinal Cluster.RejHyp Cluster.InvWCore Cluster.InvWFinal Cluster.InvQBase Cluster.InvQStep Cluster.InvDBase Cluster.InvDSpec Cluster.InvDRem Cluster.InvDSched Cluster.InvDStep Cluster.InvAll.
From Coq Require Import ZArith Lia.
Local Open Scope N_scope.

Record INV (s : sys) : Prop := mkINV {
  inv_hok : HOK (s_hq s);                 (* job counters exact (ProofsJob) *)
  inv_fresh : fresh (s, []);              (* job ids below the counter (ProofsFinal) *)
  inv_cb : CB (s, []);                    (* task map sorted, consumers within the job, core tasks = active job tasks (Bij files) *)
  inv_w : WI (s_core s);                  (* worker sets <-> task states, sortedness of workers / sets / redirects (InvW files) *)
  inv_q : QInv (s_core s);                (* queues <-> task states, queue structure (InvQ files) *)
  inv_qs : queue_statement (s_core s);    (* ... in readable form *)
  inv_d : GD (s_core s);                  (* dependency counters and consumer lists exact (InvD files) *)
  inv_dj : DJ (s, [])                     (* dependencies are known ids of the task's own job *)
}.

Theorem reachable_INV ops reserve maxfill s outs :
  Forall op_wf ops -> run_fresh (init_sys reserve maxfill) ops = true -> run (init_sys reserve maxfill) ops = Ok (s, outs) ->
  INV s.
Proof.
  intros Hwf Hf H. destruct (init_facts reserve maxfill) as (Hok0 & F0 & HC0).
  assert (Hal : along (fun s0 => InvQBase.asg_ok (s_core s0)) (init_sys reserve maxfill) ops).
  { eapply (along_reach _ reserve maxfill) with (pre := []); [| constructor | reflexivity | reflexivity | exact Hwf | exact Hf].
    intros ops0 s0 outs0 Hw0 Hf0 Hr0. eapply asg_ok_reachable; eassumption. }
  destruct (queue_invariant_full _ _ _ _ _ Hwf H Hal) as [HQ HQS].
  assert (HPRE : PRE (s, outs)).
  { eapply (run_PRE).
    - intros ops0 r m s0 outs0 Hw Hf0 Hr. destruct (queue_invariant_reachable _ _ _ _ _ Hw Hf0 Hr) as (_ & Q1 & Q2). split; [exact Q1 | exact Q2].
    - intros ops0 r m s0 outs0 Hw Hf0 Hr. exact (proj1 (worker_sets_invariant _ _ _ _ _ Hw Hf0 Hr)).
    - exact Hwf.
    - exact Hf.
    - exact H. }
  constructor.
  - eapply run_hq_ok; [exact Hok0 | exact H].
  - apply (fresh_outs s outs). apply (g_fresh _ _ (G_run _ _ _ _ F0 H)). exact F0.
  - eapply CB_outs. eapply run_CB; [exact Hok0 | exact F0 | exact Hwf | exact HC0 | exact H].
  - exact (proj1 (reachable_WI _ _ _ _ _ Hwf Hf H)).
  - exact HQ.
  - exact HQS.
  - exact (proj1 HPRE).
  - exact (proj2 HPRE).
Qed.
