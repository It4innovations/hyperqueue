(** C06 "instance ids strictly increase": counting copies over the process list; the loss
    of a worker (the one operation that sends compute messages with NEW instance ids, and may
    remove a task it has just sent out). *)
From HQ Require Import Base.Prelude Cluster.Types Cluster.Core Cluster.Reactor Cluster.Worker Cluster.Server Cluster.Sys Cluster.Monitors Cluster.RejHyp Cluster.ProofsJob Cluster.ProofsMore Cluster.ProofsTerminal Cluster.ProofsStep Cluster.ProofsFinal Cluster.BijBase Cluster.BijCore Cluster.BijHq Cluster.BijSt Cluster.BijReact Cluster.BijFinal Cluster.ProofsOnce Cluster.InvWBase Cluster.InvWX1 Cluster.InvWX3 Cluster.NoPanicC1 Cluster.NoPanicL0 Cluster.NoPanicU0 Cluster.NoPanicU1 Cluster.NoPanicU6 Cluster.NoPanicU7 Cluster.NoPanicU17 Cluster.ExecU1 Cluster.ExecU2 Cluster.ExecU3 Cluster.ExecU5 Cluster.ExecU6.
From HQ Require Import Cluster.ModelFacts.
From Coq Require Import ZArith Lia Sorting.Sorted.
Local Open Scope N_scope.

Arguments N.add : simpl never.
Arguments N.sub : simpl never.

Fixpoint psum (f : wproc -> nat) (ps : list wproc) : nat := match ps with [] => O | p :: r => (f p + psum f r)%nat end.

Lemma cc_psum x ps : cc x ps = psum (pc x) ps.
Proof. induction ps as [|h r IH]; [reflexivity|]. cbn [cc psum]. rewrite IH. reflexivity. Qed.
Lemma psum_plus f g ps : psum (fun p => (f p + g p)%nat) ps = (psum f ps + psum g ps)%nat.
Proof. induction ps as [|h r IH]; [reflexivity|]. cbn [psum]. rewrite IH. lia. Qed.
Lemma psum_in f ps p : In p ps -> (f p <= psum f ps)%nat.
Proof. induction ps as [|h r IH]; [intros []|]. cbn [psum]. intros [->|H]; [lia | specialize (IH H); lia]. Qed.
Lemma psum_map f g ps : (forall p, f (g p) = f p) -> psum f (map g ps) = psum f ps.
Proof. intros H. induction ps as [|h r IH]; [reflexivity|]. cbn [map psum]. rewrite H, IH. reflexivity. Qed.
Lemma psum_zero f ps : (forall p, In p ps -> f p = O) -> psum f ps = O.
Proof. induction ps as [|h r IH]; intros H; [reflexivity|]. cbn [psum]. rewrite (H h (or_introl eq_refl)), IH; [reflexivity | intros p Hp; apply H; right; exact Hp]. Qed.
Lemma psum_del_le f ps w : (psum f (del_proc ps w) <= psum f ps)%nat.
Proof. induction ps as [|h r IH]; cbn [del_proc psum]; [lia|]. destruct (N.eqb w (p_id h)); cbn [psum]; lia. Qed.
Lemma psum_set_proc_le f ps np : (psum f (set_proc ps np) <= psum f ps + f np)%nat.
Proof.
  induction ps as [|h r IH]; cbn [set_proc psum]; [lia|]. destruct (N.eqb (p_id np) (p_id h)); cbn [psum]; [lia|].
  destruct (N.ltb (p_id np) (p_id h)); cbn [psum]; lia.
Qed.

Lemma psum_del f ps : forall w p, NoPanicU1.psorted ps -> find_proc ps w = Some p -> psum f ps = (f p + psum f (del_proc ps w))%nat.
Proof.
  unfold NoPanicU1.psorted. induction ps as [|h r IH]; intros w p Hs Hf; [discriminate|]. cbn [find_proc] in Hf. cbn [del_proc].
  inversion Hs as [|? ? Hs' Hall]; subst. destruct (N.eqb w (p_id h)); [inversion Hf; subst; reflexivity|].
  cbn [psum]. rewrite (IH _ _ Hs' Hf). lia.
Qed.
Lemma in_del_proc ps p w : NoPanicU1.psorted ps -> In p (del_proc ps w) -> In p ps /\ p_id p <> w.
Proof.
  unfold NoPanicU1.psorted. induction ps as [|h r IH]; intros Hs Hp; [destruct Hp|]. cbn [del_proc] in Hp.
  inversion Hs as [|? ? Hs' Hall]; subst. rewrite Forall_forall in Hall. destruct (N.eqb w (p_id h)) eqn:E.
  - apply N.eqb_eq in E. split; [right; exact Hp|]. specialize (Hall _ (in_map p_id _ _ Hp)). lia.
  - destruct Hp as [->|Hp]; [split; [left; reflexivity | intros X; rewrite X, N.eqb_refl in E; discriminate]|].
    destruct (IH Hs' Hp) as [A B]. split; [right; exact A | exact B].
Qed.
Lemma psum_le f : forall ps' ps, NoPanicU1.psorted ps' -> NoPanicU1.psorted ps ->
  (forall p', In p' ps' -> exists p, find_proc ps (p_id p') = Some p /\ (f p' <= f p)%nat) -> (psum f ps' <= psum f ps)%nat.
Proof.
  induction ps' as [|h r IH]; intros ps Hs' Hs H; [cbn; lia|]. cbn [psum].
  destruct (H h (or_introl eq_refl)) as (p & Hp & Le). rewrite (psum_del f ps _ _ Hs Hp).
  inversion Hs' as [|? ? Hs'' Hall]; subst. rewrite Forall_forall in Hall.
  assert (IH' : (psum f r <= psum f (del_proc ps (p_id h)))%nat).
  { apply IH; [exact Hs'' | apply del_proc_sorted; exact Hs|]. intros p' Hin. destruct (H p' (or_intror Hin)) as (q & Hq & Lq).
    exists q. split; [|exact Lq]. rewrite find_del_proc by exact Hs. specialize (Hall _ (in_map p_id _ _ Hin)).
    destruct (N.eqb (p_id p') (p_id h)) eqn:E; [apply N.eqb_eq in E; lia | exact Hq]. }
  lia.
Qed.
Lemma psum_set_proc f ps : forall w p p', NoPanicU1.psorted ps -> find_proc ps w = Some p -> p_id p' = w ->
  (psum f (set_proc ps p') + f p = psum f ps + f p')%nat.
Proof.
  unfold NoPanicU1.psorted. induction ps as [|h r IH]; intros w p p' Hs Hf Hi; [discriminate|]. subst w.
  cbn [find_proc] in Hf. cbn [set_proc]. inversion Hs as [|? ? Hs' Hall]; subst. rewrite Forall_forall in Hall.
  destruct (N.eqb (p_id p') (p_id h)) eqn:E.
  - inversion Hf; subst p. cbn [psum]. lia.
  - destruct (N.ltb (p_id p') (p_id h)) eqn:L.
    + exfalso. destruct (find_proc_some _ _ _ Hf) as [Hin Hid]. specialize (Hall _ (in_map p_id _ _ Hin)). apply N.ltb_lt in L. lia.
    + cbn [psum]. specialize (IH _ _ _ Hs' Hf eq_refl). lia.
Qed.
Lemma psum_one f ps (o : option wid) : NoPanicU1.psorted ps -> (forall p, In p ps -> (f p <= 1)%nat) ->
  (forall p, In p ps -> o <> Some (p_id p) -> f p = O) -> (psum f ps <= 1)%nat.
Proof.
  unfold NoPanicU1.psorted. induction ps as [|h r IH]; intros Hs H1 H0; [cbn; lia|]. cbn [psum].
  inversion Hs as [|? ? Hs' Hall]; subst. rewrite Forall_forall in Hall.
  destruct o as [w0|]; [destruct (N.eq_dec (p_id h) w0) as [E|E]|].
  - rewrite (psum_zero f r); [specialize (H1 h (or_introl eq_refl)); lia|].
    intros p Hp. apply H0; [right; exact Hp|]. specialize (Hall _ (in_map p_id _ _ Hp)). intros X. inversion X. lia.
  - rewrite (H0 h (or_introl eq_refl)) by congruence. apply IH; [exact Hs' | intros p Hp; apply H1; right; exact Hp | intros p Hp; apply H0; right; exact Hp].
  - change (psum f (h :: r) <= 1)%nat. rewrite psum_zero; [lia|]. intros p Hp. apply H0; [exact Hp | discriminate].
Qed.

(** the measure of [single_execution]: executions and copies of [x] at a process *)
Definition rn (x : tid) (p : wproc) : nat := match run_find (p_running p) x with Some _ => 1%nat | None => O end.
Definition ex1 (x : tid) (p : wproc) : nat := (rn x p + pc x p)%nat.
Lemma psum_ex1 x ps : psum (ex1 x) ps = (psum (rn x) ps + cc x ps)%nat.
Proof. rewrite cc_psum. apply psum_plus. Qed.

Lemma tags_set_proc ps p' c : In c (tags (set_proc ps p')) -> In c (ptags p') \/ In c (tags ps).
Proof.
  unfold tags. induction ps as [|h r IH]; cbn [set_proc flat_map]; [rewrite app_nil_r; auto|].
  destruct (N.eqb (p_id p') (p_id h)); cbn [flat_map]; rewrite ?in_app_iff; [tauto|].
  destruct (N.ltb (p_id p') (p_id h)); cbn [flat_map]; rewrite ?in_app_iff; [tauto|]. intros [H|H]; [tauto|]. destruct (IH H); tauto.
Qed.

Lemma pc_push x p m : pc x (push_down p m) = (pc x p + dc x [m])%nat.
Proof. unfold pc, push_down. cbn [p_down p_backlog]. rewrite dc_app. lia. Qed.

Lemma send_worker_cc x s w m s' : NoPanicU1.psorted (s_procs (fst s)) -> send_worker s w m = Ok s' ->
  cc x (s_procs (fst s')) = (cc x (s_procs (fst s)) + dc x [m])%nat /\ NoPanicU1.psorted (s_procs (fst s')).
Proof.
  unfold send_worker. intros Hs H. destruct (find_proc (s_procs (fst s)) w) as [p|] eqn:Ep; [|discriminate]. inversion H; subst s'.
  cbn [fst with_procs s_procs]. split; [|apply set_proc_sorted; exact Hs].
  destruct (find_proc_some _ _ _ Ep) as [_ Hid].
  rewrite !cc_psum. pose proof (psum_set_proc (pc x) _ w p (push_down p m) Hs Ep Hid) as Hc. rewrite pc_push in Hc. lia.
Qed.

Definition AL (c0 c' : core) : wid -> dmsg -> Prop := fun _ m =>
  match m with
  | DCompute cts => forall ct, In ct cts ->
      (exists t0, In t0 (c_tasks c0) /\ t_id t0 = ct_id ct /\ t_inst t0 < ct_inst ct) /\
      (forall t', In t' (c_tasks c') -> t_id t' = ct_id ct -> ct_inst ct <= t_inst t')
  | _ => True
  end.
Lemma AL_quiet c0 c' w m : quietm m -> AL c0 c' w m.
Proof. destruct m; cbn; auto. intros []. Qed.

Definition nof (x : tid -> Prop) := x.
Definition NF : tid -> Prop := fun _ => False.

Lemma AL_weaken c0 c1 c1' c' w m : TT NF NF c0 c1 -> TT NF NF c1' c' -> AL c1 c1' w m -> AL c0 c' w m.
Proof.
  intros T0 T1. destruct m; cbn [AL]; auto. intros H ct Hin. destruct (H ct Hin) as [(t1 & H1 & E1 & L1) H2]. split.
  - destruct (T0 t1 H1) as [(t0 & H0 & E0 & Le & _)|[]]. exists t0. split; [exact H0|]. split; [congruence | lia].
  - intros t' Ht' Et'. destruct (T1 t' Ht') as [(t2 & Ht2 & E2 & Le & _)|[]]. specialize (H2 t2 Ht2 ltac:(congruence)). lia.
Qed.

(** a task is sent out at most once by [lost_retracting]: only while it is Retracting from [w] *)
Definition rt (w : wid) (c : core) (x : tid) : nat :=
  match find_task (c_tasks c) x with
  | Some t => match t_state t with Retracting w1 => if N.eqb w w1 then 1%nat else O | _ => O end
  | None => O
  end.

Lemma dc_one x ct : dc x [DCompute [ct]] = if tid_eqb (ct_id ct) x then 1%nat else O.
Proof. unfold dc. cbn [dcts flat_map app]. unfold ccnt. cbn [filter]. destruct (tid_eqb (ct_id ct) x); reflexivity. Qed.

Lemma lost_retracting_spec l : forall s w s', CS (core_of s) -> NoPanicU1.psorted (s_procs (fst s)) ->
  lost_retracting s w l = Ok s' ->
  PR (AL (core_of s) (core_of s')) s s' /\ NoPanicU1.psorted (s_procs (fst s')) /\
  forall x, (cc x (s_procs (fst s')) <= cc x (s_procs (fst s)) + rt w (core_of s) x)%nat.
Proof.
  induction l as [|id r IH]; cbn [lost_retracting]; intros s w s' Hs Hp H; [inversion H; subst; split; [apply PR_refl | split; [exact Hp | intros x; lia]]|].
  apply bind_ok in H. destruct H as (t & Ht & H). apply get_task_find in Ht.
  destruct (find_task_some _ _ _ Ht) as [Hin Hid].
  destruct (t_state t) as [n|w1 rv1|w1|w1|w1 rv1|wsx|] eqn:Est; try (eapply IH; eassumption).
  destruct (N.eqb w w1) eqn:Ew; [|eapply IH; eassumption]. cbv zeta in H.
  (* [id] leaves the state [Retracting w] *)
  assert (Hrt : forall x c1 t', c_tasks c1 = set_task (c_tasks (core_of s)) t' -> t_id t' = id -> (forall w2, t_state t' <> Retracting w2) ->
            (rt w c1 x + (if tid_eqb id x then 1 else 0) <= rt w (core_of s) x + (if tid_eqb id x then 1 else 0))%nat /\
            (tid_eqb id x = true -> rt w c1 x = O /\ rt w (core_of s) x = 1%nat)).
  { intros x c1 t' Et Ei Hn. unfold rt. rewrite Et, find_set_task, Ei. destruct (tid_eqb x id) eqn:E.
    - apply tid_eqb_eq in E. subst x. rewrite Ht, Est, Ew, tid_eqb_refl.
      destruct (t_state t') eqn:E'; try (split; [lia | auto]). exfalso. exact (Hn _ eq_refl).
    - assert (E2 : tid_eqb id x = false) by (rewrite tid_eqb_sym; exact E). rewrite E2. split; [lia | discriminate]. }
  destruct (find_redirect (c_redirects (core_of s)) id) as [[target rv]|].
  - apply bind_ok in H. destruct H as (s1 & Hs1 & H).
    set (t' := with_state (with_inst t (t_inst t + 1)) (Assigned target rv)) in *.
    set (c0 := with_redirects (core_of s) (del_redirect (c_redirects (core_of s)) id)) in *.
    assert (Ec1 : core_of s1 = upd_task c0 t') by (rewrite (send_worker_core _ _ _ _ Hs1); reflexivity).
    assert (Hs' : CS (core_of s1)).
    { rewrite Ec1. eapply CS_keys; [|exact Hs]. apply (upd_task_frame c0 id t t'); [exact Hs | exact Ht | reflexivity | reflexivity]. }
    assert (Hp1 : NoPanicU1.psorted (s_procs (fst s1))) by exact (proj2 (send_worker_cc id (st_core s (upd_task c0 t')) _ _ _ Hp Hs1)).
    destruct (IH _ _ _ Hs' Hp1 H) as (R2 & P2 & C2).
    pose proof (lost_retracting_TT NF NF _ _ _ _ H) as T2.
    assert (T1 : TT NF NF (core_of s) (core_of s1)).
    { rewrite Ec1. eapply (TT_set NF NF _ _ t' t); [reflexivity | exact Hin | reflexivity | cbn; lia | cbn; intros E; lia]. }
    split; [|split; [exact P2|]].
    + eapply PR_trans; [apply (PR_core _ s (upd_task c0 t'))|]. eapply PR_trans.
      * eapply PR_send; [exact Hs1|]. cbn [AL]. intros ct [<-|[]]. cbn [ctask_of ct_id ct_inst t' t_id t_inst with_state with_inst]. split.
        -- exists t. split; [exact Hin|]. split; [reflexivity | lia].
        -- intros t2 Ht2 Et2. destruct (T2 t2 Ht2) as [(t1 & Ht1 & E1 & Le & _)|[]].
           rewrite Ec1 in Ht1. cbn [c_tasks upd_task with_tasks with_redirects c0] in Ht1.
           assert (t1 = t') by (eapply set_task_in_same; [exact (CS_sorted _ Hs) | exact Ht1 | cbn; congruence]). subst t1. cbn in Le. exact Le.
      * eapply PR_weaken; [|exact R2]. intros w0 m. apply AL_weaken; [exact T1 | apply TT_refl].
    + intros x. specialize (C2 x). rewrite (proj1 (send_worker_cc x (st_core s (upd_task c0 t')) _ _ _ Hp Hs1)), dc_one in C2.
      cbn [ctask_of ct_id t' t_id with_state with_inst] in C2. rewrite Hid in C2.
      destruct (Hrt x (core_of s1) t') as [R1 R3]; [rewrite Ec1; reflexivity | cbn; exact Hid | intros w2; cbn; discriminate|].
      cbn [st_core fst with_core s_procs] in C2. destruct (tid_eqb id x) eqn:E; [destruct (R3 eq_refl) as [A B]; rewrite A in C2; rewrite B; lia | lia].
  - set (t' := with_state (with_inst t (t_inst t + 1)) (Waiting 0)) in *.
    assert (Hs' : CS (core_of (st_core s (upd_task (core_of s) t')))).
    { eapply CS_keys; [|exact Hs]. apply (upd_task_frame (core_of s) id t t'); [exact Hs | exact Ht | reflexivity | reflexivity]. }
    destruct (IH _ _ _ Hs' Hp H) as (R2 & P2 & C2).
    assert (T1 : TT NF NF (core_of s) (core_of (st_core s (upd_task (core_of s) t')))).
    { eapply (TT_set NF NF _ _ t' t); [reflexivity | exact Hin | reflexivity | cbn; lia | cbn; intros E; lia]. }
    split; [|split; [exact P2|]].
    + eapply PR_trans; [apply (PR_core _ s (upd_task (core_of s) t'))|].
      eapply PR_weaken; [|exact R2]. intros w0 m. apply AL_weaken; [exact T1 | apply TT_refl].
    + intros x. specialize (C2 x).
      destruct (Hrt x (core_of (st_core s (upd_task (core_of s) t'))) t') as [R1 _]; [reflexivity | cbn; exact Hid | intros w2; cbn; discriminate|].
      cbn [st_core fst with_core s_procs] in C2. lia.
Qed.

Lemma dc_quiet x add : Forall quietm add -> dc x add = O.
Proof.
  induction add as [|m r IH]; intros H; [reflexivity|]. inversion H as [|? ? Hm Hr]; subst. change (m :: r) with ([m] ++ r). rewrite dc_app, (IH Hr).
  destruct m; try reflexivity. destruct Hm.
Qed.

Lemma cc_PR_quiet x s s' : NoPanicU1.psorted (s_procs (fst s)) -> NoPanicU1.psorted (s_procs (fst s')) -> PR quietA s s' ->
  (cc x (s_procs (fst s')) <= cc x (s_procs (fst s)))%nat.
Proof.
  intros Hs Hs' (_ & P & _). rewrite !cc_psum. apply psum_le; [exact Hs' | exact Hs|]. intros p' Hin.
  pose proof (NoPanicU1.in_find_proc _ _ Hs' Hin) as Hf.
  destruct (P _ _ Hf) as (p & add & X1 & X2 & X3 & X4 & X5 & X6). exists p. split; [exact X1|].
  unfold pc. rewrite X5, X2, dc_app, (dc_quiet x add X6). lia.
Qed.

Definition RB (c c' : core) : Prop :=
  forall t', In t' (c_tasks c') -> forall w1, t_state t' = Retracting w1 -> exists t, In t (c_tasks c) /\ t_id t = t_id t' /\ t_state t = Retracting w1.
Lemma RB_refl c : RB c c.
Proof. intros t H w1 E. exists t. auto. Qed.
Lemma RB_trans a b c : RB a b -> RB b c -> RB a c.
Proof.
  intros A B t3 H3 w1 E3. destruct (B t3 H3 w1 E3) as (t2 & H2 & Ei & E2). destruct (A t2 H2 w1 E2) as (t1 & H1 & Ei1 & E1).
  exists t1. split; [exact H1|]. split; [congruence | exact E1].
Qed.
Lemma RB_set c c' x t : c_tasks c' = set_task (c_tasks c) x -> In t (c_tasks c) -> t_id x = t_id t ->
  (forall w1, t_state x = Retracting w1 -> t_state t = Retracting w1) -> RB c c'.
Proof.
  intros E Hin Ei Hr t' H w1 Est. rewrite E in H. destruct (set_task_in _ _ _ H) as [->|Hin']; [exists t; split; [exact Hin|]; split; [auto | apply Hr; exact Est]|].
  exists t'. auto.
Qed.

Lemma lost_prefilled_RB l : forall c c', lost_prefilled c l = Ok c' -> RB c c'.
Proof.
  induction l as [|id r IH]; cbn [lost_prefilled]; intros c c' H; [inversion H; subst; apply RB_refl|].
  apply bind_ok in H. destruct H as (t & Ht & H). apply bind_ok in H. destruct H as (q & _ & H). apply bind_ok in H. destruct H as (q' & _ & H).
  apply get_task_find in Ht. eapply RB_trans; [|eapply IH; exact H].
  eapply (RB_set _ _ _ t); [reflexivity | exact (find_in _ _ _ Ht) | reflexivity | cbn; intros w1 E; discriminate].
Qed.

Lemma lost_assigned_RB l : forall c running ret c' running' ret', lost_assigned c l running ret = Ok (c', running', ret') -> RB c c'.
Proof.
  induction l as [|id r IH]; cbn [lost_assigned]; intros c running ret c' running' ret' H; [inversion H; subst; apply RB_refl|].
  apply bind_ok in H. destruct H as (t & Ht & H). apply get_task_find in Ht.
  apply bind_ok in H. destruct H as ([[c1 t1] running1] & Hr1 & H).
  apply bind_ok in H. destruct H as ([qs rt0] & _ & H).
  eapply RB_trans; [|eapply IH; exact H].
  assert (E1 : c_tasks c1 = c_tasks c /\ (t1 = t \/ t1 = with_state t (Waiting 0))).
  { destruct (t_state t); try (inversion Hr1; subst; auto; fail).
    destruct (find_redirect _ id); inversion Hr1; subst; auto. }
  destruct E1 as (Et & [-> | ->]).
  - eapply (RB_set _ _ _ t); [cbn [c_tasks upd_task with_tasks with_queues]; rewrite Et; reflexivity | exact (find_in _ _ _ Ht) | reflexivity | cbn; auto].
  - eapply (RB_set _ _ _ t); [cbn [c_tasks upd_task with_tasks with_queues]; rewrite Et; reflexivity | exact (find_in _ _ _ Ht) | reflexivity | cbn; intros w1 E; discriminate].
Qed.

Lemma process_worker_lost_PR A s w running reason s' : process_worker_lost s w running reason = Ok s' -> PR A s s'.
Proof.
  intros H. apply PR_job; [eapply process_worker_lost_CP; exact H | eapply process_worker_lost_LS; exact H|].
  unfold process_worker_lost in H. apply bind_ok in H. destruct H as (s1 & H1 & H). inversion H; subst.
  destruct (set_waiting_all_spec _ _ _ H1) as (_ & _ & Hc & _). intros x Hx. change (hq_of (emit s1 (OEv (EvWLost w reason)))) with (hq_of s1).
  eapply hq_chg_seen; eassumption.
Qed.

Theorem on_remove_worker_EXF s w reason a p t s' :
  CB s -> NoPanicU1.psorted (s_procs (fst s)) -> NoPanicU1.psorted (s_procs (fst s')) ->
  on_remove_worker s w reason a p t = Ok s' ->
  LS s' = LS s /\ SM s s' /\
  (forall w' p', find_proc (s_procs (fst s')) w' = Some p' -> w' <> w /\ exists p0 add, find_proc (s_procs (fst s)) w' = Some p0 /\
      p_backlog p' = p_backlog p0 /\ p_running p' = p_running p0 /\ p_up p' = p_up p0 /\ p_down p' = p_down p0 ++ add /\
      Forall (AL (core_of s) (core_of s') w') add) /\
  (forall x, (cc x (s_procs (fst s')) <= cc x (del_proc (s_procs (fst s)) w))%nat \/
             ((cc x (s_procs (fst s')) <= cc x (del_proc (s_procs (fst s)) w) + 1)%nat /\
              exists t0, find_task (c_tasks (core_of s)) x = Some t0 /\ t_state t0 = Retracting w)).
Proof.
  intros HC Hps Hps' H. unfold on_remove_worker in H.
  destruct (find_worker (c_workers (core_of s)) w) as [wk|] eqn:Hw; [|discriminate].
  apply bind_ok in H. destruct H as ([[c2 running] retracted] & Hr & H).
  set (c := core_of s) in *.
  set (c0 := with_workers c (del_worker (c_workers c) w)) in *.
  set (s0 := (with_procs (fst s) (del_proc (s_procs (fst s)) w), snd s) : st) in *.
  assert (Hs0 : CS c0) by exact (cb_s _ HC).
  pose proof (lost_sets_TT NF NF c0 w wk a p c2 running retracted Hr) as T2.
  assert (A2 : keys c2 = keys c0 /\ RB c0 c2).
  { destruct (w_assign wk) as [sa sp sf|mt root] eqn:Ea.
    - destruct (negb _); [discriminate|]. apply bind_ok in Hr. destruct Hr as (c1 & Hp & Hr).
      pose proof (lost_prefilled_frame _ _ _ Hs0 Hp) as E1. split.
      + rewrite (lost_assigned_frame _ _ _ _ _ _ _ (CS_keys _ _ E1 Hs0) Hr). exact E1.
      + eapply RB_trans; [eapply lost_prefilled_RB; exact Hp | eapply lost_assigned_RB; exact Hr].
    - apply bind_ok in Hr. destruct Hr as (tk & Ht & Hr). apply get_task_find in Ht.
      destruct (find_task_some _ _ _ Ht) as [Htin Hid].
      destruct (t_state tk) as [n|w1 rv1|w1|w1|w1 rv1|ws|] eqn:Est; try discriminate. destruct ws as [|w0 rest] eqn:Ews; [discriminate|].
      destruct (N.eqb w w0) eqn:Ew0.
      + apply bind_ok in Hr. destruct Hr as (c1 & Hc1 & Hr). apply bind_ok in Hr. destruct Hr as ([qs ret] & ?X & Hr).
        inversion Hr; subst c2 running retracted.
        pose proof (reset_mn_all_tasks _ _ _ Hc1) as T1. pose proof (reset_mn_all_frame _ _ _ Hc1) as E1. split.
        * change (keys (upd_task c1 (with_inst (with_state tk (Waiting 0)) (t_inst tk + 1))) = keys c0).
          transitivity (keys c1); [|exact E1].
          apply (upd_task_frame c1 mt tk); [eapply CS_keys; [exact E1 | exact Hs0] | rewrite T1; exact Ht | reflexivity | reflexivity].
        * eapply (RB_set c0 _ _ tk); [cbn [c_tasks upd_task with_tasks with_queues]; rewrite T1; reflexivity | exact Htin | reflexivity | cbn; intros w1 E; discriminate].
      + inversion Hr; subst c2 running retracted. split.
        * apply (upd_task_frame c0 mt tk); [exact Hs0 | exact Ht | reflexivity | reflexivity].
        * eapply (RB_set c0 _ _ tk); [reflexivity | exact Htin | reflexivity | cbn; intros w1 E; discriminate]. }
  destruct A2 as (K2 & B2).
  destruct (negb (perm_of_set t _)); [discriminate|].
  apply bind_ok in H. destruct H as (s3 & H3 & H). apply bind_ok in H. destruct H as (s4 & H4 & H).
  apply bind_ok in H. destruct H as (s6 & H6 & H). apply bind_ok in H. destruct H as (s7 & H7 & H). inversion H; subst s'. clear H.
  assert (Hs2 : CS c2) by (eapply CS_keys; [exact K2 | exact Hs0]).
  assert (Hp0 : NoPanicU1.psorted (s_procs (fst (st_core s0 c2)))) by (cbn; apply del_proc_sorted; exact Hps).
  destruct (lost_retracting_spec _ (st_core s0 c2) _ _ Hs2 Hp0 H3) as (R3 & Hp3 & C3).
  cbn [core_of st_core with_core s_core fst s_procs s0 with_procs] in R3, C3.
  pose proof (lost_retracting_TT NF NF _ _ _ _ H3) as T3. cbn [core_of st_core with_core s_core fst] in T3.
  assert (Rq : PR quietA s3 (ask_scheduling s7)).
  { eapply PR_trans; [eapply process_retracted_PR; [|exact H4]; intros w0 m Hm; exact Hm|].
    eapply PR_trans; [apply (PR_broadcast quietA s4 (DLostWorker w)); intros w0; exact I|].
    eapply PR_trans; [eapply process_worker_lost_PR; exact H6|].
    eapply PR_trans; [eapply lost_fail_running_PR; [|exact H7]; intros w0 m Hm; exact Hm | apply PR_ask]. }
  assert (Tq : TT NF NF (core_of s3) (core_of (ask_scheduling s7))).
  { destruct (process_worker_lost_active _ _ _ _ _ H6) as [C6 _]. unfold core_same in C6.
    eapply TT_trans; [eapply process_retracted_TT; exact H4|].
    eapply TT_trans; [|eapply TT_trans; [eapply lost_fail_running_TT; exact H7 | apply TT_tasks; reflexivity]].
    rewrite C6. apply TT_refl. }
  assert (Th : TT NF NF c c2) by (eapply TT_trans; [apply (TT_tasks NF NF c c0); reflexivity | exact T2]).
  set (s' := ask_scheduling s7) in *.
  assert (Rall : PR (AL c (core_of s')) (st_core s0 c2) s').
  { eapply PR_trans.
    - eapply PR_weaken; [|exact R3]. intros w0 m. apply AL_weaken; [exact Th | exact Tq].
    - eapply PR_weaken; [|exact Rq]. intros w0 m Hm. apply AL_quiet. exact Hm. }
  destruct Rall as (L & P & S). split; [exact L|]. split; [exact S|]. split.
  - intros w' p' Hp'. destruct (P w' p' Hp') as (p0 & add & X1 & X2 & X3 & X4 & X5 & X6).
    cbn [st_core fst with_core s_procs s0 with_procs] in X1. rewrite find_del_proc in X1 by exact Hps.
    destruct (N.eqb w' w) eqn:E; [discriminate|]. split; [intros ->; rewrite N.eqb_refl in E; discriminate|].
    exists p0, add. repeat split; auto.
  - intros x. pose proof (cc_PR_quiet x _ _ Hp3 Hps' Rq) as Cq. specialize (C3 x).
    destruct (rt w c2 x) eqn:Ert; [left; lia|]. right. split.
    + unfold rt in Ert. destruct (find_task (c_tasks c2) x) as [t2|]; [|discriminate]. destruct (t_state t2); try discriminate.
      destruct (N.eqb w w0); [inversion Ert; subst; lia | discriminate].
    + unfold rt in Ert. destruct (find_task (c_tasks c2) x) as [t2|] eqn:E2; [|discriminate].
      destruct (t_state t2) eqn:Est2; try discriminate. destruct (N.eqb w w0) eqn:Ew; [|discriminate]. apply N.eqb_eq in Ew. subst w0.
      destruct (find_task_some _ _ _ E2) as [Hin2 Hid2].
      destruct (B2 t2 Hin2 w Est2) as (t0 & Hin0 & Ei0 & Es0). exists t0. split; [|exact Es0].
      rewrite <- Hid2, <- Ei0. apply in_find_task; [exact (CS_sorted _ (cb_s _ HC)) | exact Hin0].
Qed.
