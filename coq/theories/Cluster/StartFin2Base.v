(** C01, "start before finish", strengthened: the LAST start of the task before its finish has
    after it no terminal event of the task, no further start of it and NO LOSS OF ITS ROOT WORKER
    (the first worker of the start event).  The job layer emits no per-task event when a task goes
    back to waiting, but it goes back to waiting only in [process_worker_lost], which emits
    [EvWLost w] for the lost worker: the absence of that event for the root worker is the
    observable form of "the task did not go back to waiting in between".

    This file: the stream function [cur] ("root worker of the current start"), the readable
    predicate [FAS2], the executable [fas2_check], the state invariant [IQ] (which links the job
    layer, the stream and the core: a task the job layer shows Running has a current start, and the
    core shows it running on that root), and the generic preservation lemmas: a stretch [WK]
    (StartFinBase.v) that comes with a frame [RKN] on the core preserves the invariant ([WQ]). *)
From HQ Require Import Base.Prelude Cluster.Types Cluster.Core Cluster.Reactor Cluster.Worker Cluster.Server Cluster.Sys Cluster.Monitors Cluster.ProofsJob Cluster.ProofsMore Cluster.ProofsTerminal Cluster.ProofsStep Cluster.ProofsFinal Cluster.BijBase Cluster.BijHq Cluster.ProofsOnce Cluster.StartFinBase.
From HQ Require Import Cluster.ModelFacts.
From Coq Require Import ZArith Lia.
Local Open Scope N_scope.

Inductive okind := KStart (x : tid) (ws : list wid) | KLost (w : wid) | KOther.
Definition kind_of (o : out) : okind :=
  match o with
  | OEv (EvStarted x _ ws _) => KStart x ws
  | OEv (EvWLost w _) => KLost w
  | _ => KOther
  end.

Lemma kind_start o x ws : kind_of o = KStart x ws <-> exists i rv, o = OEv (EvStarted x i ws rv).
Proof.
  split.
  - destruct o as [e| | | | | |]; try discriminate. destruct e; try discriminate. cbn. intros H. inversion H; subst. eauto.
  - intros (i & rv & ->). reflexivity.
Qed.
Lemma kind_lost o w : kind_of o = KLost w <-> exists r, o = OEv (EvWLost w r).
Proof.
  split.
  - destruct o as [e| | | | | |]; try discriminate. destruct e; try discriminate. cbn. intros H. inversion H; subst. eauto.
  - intros (r & ->). reflexivity.
Qed.
Lemma kind_start_tids o x ws : kind_of o = KStart x ws -> tids_of o = [].
Proof. intros H. apply kind_start in H. destruct H as (i & rv & ->). reflexivity. Qed.
Lemma kind_lost_tids o w : kind_of o = KLost w -> tids_of o = [].
Proof. intros H. apply kind_lost in H. destruct H as (r & ->). reflexivity. Qed.

Definition cur_step (t : tid) (c : option wid) (o : out) : option wid :=
  match kind_of o with
  | KStart x ws => if tid_eqb x t then hd_error ws else c
  | KLost w => match c with Some w' => if N.eqb w' w then None else c | None => None end
  | KOther => if tid_mem t (tids_of o) then None else c
  end.
Definition cur (outs : list out) (t : tid) : option wid := fold_left (cur_step t) outs None.

Lemma cur_snoc l o t : cur (l ++ [o]) t = cur_step t (cur l t) o.
Proof. unfold cur. rewrite fold_left_app. reflexivity. Qed.

Definition touches (o : out) (t : tid) : bool :=
  match kind_of o with
  | KStart x _ => tid_eqb x t
  | KLost _ => true
  | KOther => tid_mem t (tids_of o)
  end.
Lemma cur_step_untouched o t c : touches o t = false -> cur_step t c o = c.
Proof. unfold touches, cur_step. destruct (kind_of o); intros H; [rewrite H; reflexivity | discriminate | rewrite H; reflexivity]. Qed.

Lemma calm_untouched o t : calm o = true -> ~ In t (tids_of o) -> touches o t = false.
Proof.
  intros Hc Hn.
  assert (Hk : kind_of o = KOther) by (destruct o as [e| | | | | |]; try reflexivity; destruct e; try reflexivity; discriminate).
  unfold touches. rewrite Hk. destruct (tid_mem t (tids_of o)) eqn:Em; [|reflexivity]. apply tid_mem_In in Em. contradiction.
Qed.

Lemma cur_app e : forall l t, forallb calm e = true -> ~ In t (terminal_ids e) -> cur (l ++ e) t = cur l t.
Proof.
  induction e as [|x r IH]; intros l t Hc Hn; [rewrite app_nil_r; reflexivity|].
  cbn [forallb] in Hc. apply andb_true_iff in Hc. destruct Hc as [Hx Hr]. rewrite tids_cons in Hn.
  change (l ++ x :: r) with (l ++ [x] ++ r).
  rewrite app_assoc, IH, cur_snoc; [|exact Hr | intros H; apply Hn; apply in_or_app; right; exact H].
  apply cur_step_untouched. apply calm_untouched; [exact Hx | intros H; apply Hn; apply in_or_app; left; exact H].
Qed.

Definition FAS2c (outs : list out) : Prop :=
  forall pre t post, outs = pre ++ OEv (EvFinished t) :: post -> cur pre t <> None.

Lemma FAS2c_nil : FAS2c [].
Proof. intros pre t post E. destruct pre; discriminate. Qed.

(** [live2 outs t w]: the last start of [t] in [outs] names the root worker [w], and after it
    there is no terminal event of [t] and no loss of [w]. *)
Definition live2 (outs : list out) (t : tid) (w : wid) : Prop :=
  exists a i ws rv b, outs = a ++ OEv (EvStarted t i ws rv) :: b /\ hd_error ws = Some w /\
    (forall i' ws' rv', ~ In (OEv (EvStarted t i' ws' rv')) b) /\
    ~ In t (terminal_ids b) /\
    (forall r, ~ In (OEv (EvWLost w r)) b).

Definition FAS2 (outs : list out) : Prop :=
  forall pre t post, outs = pre ++ OEv (EvFinished t) :: post -> exists w, live2 pre t w.

Lemma terminal_ids_in o l t : In o l -> In t (tids_of o) -> In t (terminal_ids l).
Proof. intros Ho Ht. unfold terminal_ids. apply in_flat_map. exists o. split; assumption. Qed.

Lemma cur_live2 l : forall t w, cur l t = Some w <-> live2 l t w.
Proof.
  induction l as [|o l IH] using rev_ind; intros t w.
  - split; [discriminate | intros (a & i & ws & rv & b & E & _); destruct a; discriminate].
  - rewrite cur_snoc. split.
    + intros H. unfold cur_step in H. destruct (kind_of o) as [x ws|w1|] eqn:Ek.
      * destruct (tid_eqb x t) eqn:Ex.
        -- apply tid_eqb_eq in Ex. subst x. apply kind_start in Ek. destruct Ek as (i & rv & ->).
           exists l, i, ws, rv, []. split; [reflexivity|]. split; [exact H|]. split; [intros ? ? ? []|]. split; [intros [] | intros ? []].
        -- apply IH in H. destruct H as (a & i & ws0 & rv & b & E & Hh & H1 & H2 & H3).
           exists a, i, ws0, rv, (b ++ [o]). split; [rewrite E, <- app_assoc; reflexivity|]. split; [exact Hh|].
           split; [|split].
           ++ intros i' ws' rv' Hin. apply in_app_or in Hin. destruct Hin as [Hin|[Eo|[]]]; [exact (H1 _ _ _ Hin)|].
              subst o. cbn in Ek. inversion Ek; subst. rewrite tid_eqb_refl in Ex. discriminate.
           ++ rewrite terminal_ids_app. intros Hin. apply in_app_or in Hin. destruct Hin as [Hin|Hin]; [exact (H2 Hin)|].
              unfold terminal_ids in Hin. cbn [flat_map] in Hin. rewrite (kind_start_tids _ _ _ Ek) in Hin. destruct Hin.
           ++ intros r Hin. apply in_app_or in Hin. destruct Hin as [Hin|[Eo|[]]]; [exact (H3 _ Hin)|]. subst o. discriminate.
      * destruct (cur l t) as [w'|] eqn:Ec; [|discriminate]. destruct (N.eqb w' w1) eqn:Ew; [discriminate|]. inversion H; subst w'.
        apply IH in Ec. destruct Ec as (a & i & ws0 & rv & b & E & Hh & H1 & H2 & H3).
        exists a, i, ws0, rv, (b ++ [o]). split; [rewrite E, <- app_assoc; reflexivity|]. split; [exact Hh|].
        split; [|split].
        -- intros i' ws' rv' Hin. apply in_app_or in Hin. destruct Hin as [Hin|[Eo|[]]]; [exact (H1 _ _ _ Hin)|]. subst o. discriminate.
        -- rewrite terminal_ids_app. intros Hin. apply in_app_or in Hin. destruct Hin as [Hin|Hin]; [exact (H2 Hin)|].
           unfold terminal_ids in Hin. cbn [flat_map] in Hin. rewrite (kind_lost_tids _ _ Ek) in Hin. destruct Hin.
        -- intros r Hin. apply in_app_or in Hin. destruct Hin as [Hin|[Eo|[]]]; [exact (H3 _ Hin)|].
           subst o. cbn in Ek. inversion Ek; subst. rewrite N.eqb_refl in Ew. discriminate.
      * destruct (tid_mem t (tids_of o)) eqn:Em; [discriminate|].
        apply IH in H. destruct H as (a & i & ws0 & rv & b & E & Hh & H1 & H2 & H3).
        exists a, i, ws0, rv, (b ++ [o]). split; [rewrite E, <- app_assoc; reflexivity|]. split; [exact Hh|].
        split; [|split].
        -- intros i' ws' rv' Hin. apply in_app_or in Hin. destruct Hin as [Hin|[Eo|[]]]; [exact (H1 _ _ _ Hin)|]. subst o. discriminate.
        -- rewrite terminal_ids_app. intros Hin. apply in_app_or in Hin. destruct Hin as [Hin|Hin]; [exact (H2 Hin)|].
           unfold terminal_ids in Hin. cbn [flat_map] in Hin. rewrite app_nil_r in Hin. apply tid_mem_In in Hin. congruence.
        -- intros r Hin. apply in_app_or in Hin. destruct Hin as [Hin|[Eo|[]]]; [exact (H3 _ Hin)|]. subst o. discriminate.
    + intros (a & i & ws & rv & b & E & Hh & H1 & H2 & H3).
      destruct (list_last_case b) as [->|(b' & x & ->)].
      * apply app_inj_tail in E. destruct E as [_ ->]. unfold cur_step. cbn [kind_of]. rewrite tid_eqb_refl. exact Hh.
      * change (a ++ OEv (EvStarted t i ws rv) :: b' ++ [x]) with (a ++ (OEv (EvStarted t i ws rv) :: b') ++ [x]) in E.
        rewrite app_assoc in E. apply app_inj_tail in E. destruct E as [El <-].
        assert (Hc : cur l t = Some w).
        { apply IH. exists a, i, ws, rv, b'. split; [exact El|]. split; [exact Hh|]. split; [|split].
          - intros i' ws' rv' Hin. apply (H1 i' ws' rv'). apply in_or_app. left. exact Hin.
          - intros Hin. apply H2. rewrite terminal_ids_app. apply in_or_app. left. exact Hin.
          - intros r Hin. apply (H3 r). apply in_or_app. left. exact Hin. }
        rewrite Hc. unfold cur_step. destruct (kind_of o) as [x ws1|w1|] eqn:Ek.
        -- destruct (tid_eqb x t) eqn:Ex; [|reflexivity]. exfalso. apply tid_eqb_eq in Ex. subst x.
           apply kind_start in Ek. destruct Ek as (i1 & rv1 & ->). apply (H1 i1 ws1 rv1). apply in_or_app. right. left. reflexivity.
        -- destruct (N.eqb w w1) eqn:Ew; [|reflexivity]. exfalso. apply N.eqb_eq in Ew. subst w1.
           apply kind_lost in Ek. destruct Ek as (r & ->). apply (H3 r). apply in_or_app. right. left. reflexivity.
        -- destruct (tid_mem t (tids_of o)) eqn:Em; [|reflexivity]. exfalso. apply H2. apply tid_mem_In in Em.
           eapply terminal_ids_in; [|exact Em]. apply in_or_app. right. left. reflexivity.
Qed.

Lemma FAS2c_FAS2 outs : FAS2c outs <-> FAS2 outs.
Proof.
  unfold FAS2c, FAS2. split; intros H pre t post E.
  - specialize (H pre t post E). destruct (cur pre t) as [w|] eqn:Ec; [|contradiction]. exists w. apply cur_live2. exact Ec.
  - destruct (H pre t post E) as (w & Hw). apply cur_live2 in Hw. congruence.
Qed.

(** Quadratic: [cur] is recomputed on the prefix at every finish. *)
Fixpoint fas2_go (seen rest : list out) : bool :=
  match rest with
  | [] => true
  | o :: r =>
      match fin_of o with
      | Some t => match cur seen t with Some _ => true | None => false end
      | None => true
      end && fas2_go (seen ++ [o]) r
  end.
Definition fas2_check (outs : list out) : bool := fas2_go [] outs.

Lemma fas2_go_spec rest : forall seen,
  fas2_go seen rest = true <-> forall pre t post, rest = pre ++ OEv (EvFinished t) :: post -> cur (seen ++ pre) t <> None.
Proof.
  induction rest as [|o r IH]; intros seen; cbn [fas2_go].
  - split; [intros _ pre t post E; destruct pre; discriminate | reflexivity].
  - rewrite andb_true_iff, IH. split.
    + intros [Hfin Hrest] pre t post E. destruct pre as [|o' pre'].
      * cbn [app] in E. inversion E; subst o. cbn [fin_of] in Hfin. rewrite app_nil_r.
        destruct (cur seen t); [discriminate | discriminate].
      * cbn [app] in E. inversion E; subst o' r. specialize (Hrest pre' t post eq_refl).
        rewrite <- app_assoc in Hrest. exact Hrest.
    + intros H. split.
      * destruct (fin_of o) as [t|] eqn:Ef; [|reflexivity]. apply fin_of_spec in Ef. subst o.
        specialize (H [] t r eq_refl). rewrite app_nil_r in H. destruct (cur seen t); [reflexivity | contradiction].
      * intros pre t post E. subst r. specialize (H (o :: pre) t post eq_refl). rewrite <- app_assoc. exact H.
Qed.

Theorem fas2_check_spec outs : fas2_check outs = true <-> FAS2 outs.
Proof. unfold fas2_check. rewrite fas2_go_spec, <- FAS2c_FAS2. unfold FAS2c. cbn [app]. reflexivity. Qed.

Lemma FAS2_FAS outs : FAS2 outs -> FAS outs.
Proof.
  intros H pre t post E. destruct (H pre t post E) as (w & a & i & ws & rv & b & Ea & _ & _ & Hn & _).
  exists a, i, ws, rv, b. split; assumption.
Qed.

(** The core shows the task running with root worker [w] ([Finished] is the transient state inside
    [task_finished], between the core update and the job-layer callback). *)
Definition rootok (st : tstate) (w : wid) : Prop :=
  match st with
  | Running w' _ => w' = w
  | RunningMN (w' :: _) => w' = w
  | Finished => True
  | _ => False
  end.
Definition keeps (st st' : tstate) : Prop := forall w, rootok st w -> rootok st' w.

Lemma keeps_refl st : keeps st st.
Proof. intros w H. exact H. Qed.
Lemma keeps_trans a b c : keeps a b -> keeps b c -> keeps a c.
Proof. intros H1 H2 w H. exact (H2 w (H1 w H)). Qed.

Definition core_root (c : core) (t : tid) (w : wid) : Prop :=
  forall tk, In tk (c_tasks c) -> t_id tk = t -> rootok (t_state tk) w.

Definition IQ (s : st) (pre : list out) : Prop :=
  FAS2c (pre ++ snd s) /\
  forall t, task_state s t = Some JR -> exists w, cur (pre ++ snd s) t = Some w /\ core_root (core_of s) t w.

Definition SQ (s s' : st) : Prop := forall pre, IQ s pre -> IQ s' pre.

Lemma SQ_refl s : SQ s s.
Proof. intros pre H. exact H. Qed.
Lemma SQ_trans s1 s2 s3 : SQ s1 s2 -> SQ s2 s3 -> SQ s1 s3.
Proof. intros A B pre H. exact (B pre (A pre H)). Qed.

(** Frames on the core: every task of [c'] (outside [N]) comes from a task of [c] with the
    same id whose root, if it had one, is kept. *)
Definition RKN (N : tid -> Prop) (c c' : core) : Prop :=
  forall tk', In tk' (c_tasks c') ->
    N (t_id tk') \/ exists tk, In tk (c_tasks c) /\ t_id tk = t_id tk' /\ keeps (t_state tk) (t_state tk').

Lemma RKN_refl N c : RKN N c c.
Proof. intros tk Hin. right. exists tk. split; [exact Hin|]. split; [reflexivity | apply keeps_refl]. Qed.

Lemma RKN_eq N c c' : c_tasks c' = c_tasks c -> RKN N c c'.
Proof. intros E tk Hin. rewrite E in Hin. right. exists tk. split; [exact Hin|]. split; [reflexivity | apply keeps_refl]. Qed.

Lemma RKN_trans N c1 c2 c3 : RKN N c1 c2 -> RKN N c2 c3 -> RKN N c1 c3.
Proof.
  intros A B tk3 H3. destruct (B tk3 H3) as [Hn|(tk2 & H2 & I2 & K2)]; [left; exact Hn|].
  destruct (A tk2 H2) as [Hn|(tk1 & H1 & I1 & K1)]; [left; rewrite <- I2; exact Hn|].
  right. exists tk1. split; [exact H1|]. split; [congruence | eapply keeps_trans; eassumption].
Qed.

Lemma RKN_weaken (N M : tid -> Prop) c c' : (forall t, N t -> M t) -> RKN N c c' -> RKN M c c'.
Proof. intros Hw A tk Hin. destruct (A tk Hin) as [Hn|H]; [left; apply Hw; exact Hn | right; exact H]. Qed.

Lemma core_root_frame N c c' t w : RKN N c c' -> ~ N t -> core_root c t w -> core_root c' t w.
Proof.
  intros A Hn Hr tk' Hin Hid. destruct (A tk' Hin) as [HN|(tk & Hin0 & Hid0 & K)]; [rewrite Hid in HN; contradiction|].
  apply K. apply Hr; [exact Hin0 | congruence].
Qed.

Notation NoN := (fun _ : tid => False).

(** [WQ s s']: a stretch without start and without worker loss, during which the core keeps the roots of
    all tasks outside some set [N], none of which the job layer shows Running afterwards. *)
Definition WQ (s s' : st) : Prop :=
  WK s s' /\ exists N : tid -> Prop, RKN N (core_of s) (core_of s') /\ forall t, N t -> task_state s' t <> Some JR.

Lemma WQ_SQ s s' : WQ s s' -> SQ s s'.
Proof.
  intros [(ext & E & Hc & Hf & Hj) (N & Hk & HN)] pre [HF HL]. unfold IQ. rewrite E, app_assoc. split.
  - refine (fin_app (fun l t => cur l t <> None) _ _ HF _). intros p t q Ep. destruct (Hf p t q Ep) as [Ht Hn].
    destruct (HL t Ht) as (w & Hw & _). rewrite cur_app; [congruence | | exact Hn].
    rewrite Ep, forallb_app in Hc. apply andb_true_iff in Hc. exact (proj1 Hc).
  - intros x Hx. destruct (Hj x Hx) as [H1 H2]. destruct (HL x H1) as (w & Hw & Hr). exists w.
    split; [rewrite cur_app; assumption|].
    eapply core_root_frame; [exact Hk | intros Hn; exact (HN x Hn Hx) | exact Hr].
Qed.

Lemma WQ_trans s1 s2 s3 : WQ s1 s2 -> WQ s2 s3 -> WQ s1 s3.
Proof.
  intros [W1 (N1 & K1 & H1)] [W2 (N2 & K2 & H2)]. split; [eapply WK_trans; eassumption|].
  exists (fun t => N1 t \/ N2 t). split.
  - eapply RKN_trans; [eapply RKN_weaken; [|exact K1] | eapply RKN_weaken; [|exact K2]]; intros t Ht; [left | right]; exact Ht.
  - intros t [Ht|Ht] Hjr; [|exact (H2 t Ht Hjr)]. destruct W2 as (e & _ & _ & _ & J2). exact (H1 t Ht (proj1 (J2 t Hjr))).
Qed.

Lemma WQ_frame (N : tid -> Prop) s s' :
  WK s s' -> RKN N (core_of s) (core_of s') -> (forall t, N t -> task_state s' t <> Some JR) -> WQ s s'.
Proof. intros W Hk HN. split; [exact W | exists N; split; assumption]. Qed.

Lemma WQ_core s s' : WK s s' -> RKN NoN (core_of s) (core_of s') -> WQ s s'.
Proof. intros W Hk. apply (WQ_frame NoN); [exact W | exact Hk | intros t []]. Qed.

Lemma WQ_tasks s s' : WK s s' -> c_tasks (core_of s') = c_tasks (core_of s) -> WQ s s'.
Proof. intros W Hc. apply WQ_core; [exact W | apply RKN_eq; exact Hc]. Qed.

Lemma WQ_refl s : WQ s s.
Proof. apply WQ_tasks; [apply WK_refl | reflexivity]. Qed.

Lemma WQ_core0 s s' : hq_of s' = hq_of s -> snd s' = snd s -> RKN NoN (core_of s) (core_of s') -> WQ s s'.
Proof. intros Hq Hs Hk. apply WQ_core; [apply WK_core; assumption | exact Hk]. Qed.

Lemma WQ_same s s' : hq_of s' = hq_of s -> snd s' = snd s -> c_tasks (core_of s') = c_tasks (core_of s) -> WQ s s'.
Proof. intros Hq Hs Hc. apply WQ_tasks; [apply WK_core; assumption | exact Hc]. Qed.

Lemma WQ_emit_quiet s o : tids_of o = [] -> calm o = true -> WQ s (emit s o).
Proof. intros Ho Hc. apply WQ_tasks; [apply WK_emit_quiet; assumption | reflexivity]. Qed.

Lemma SQ_start s s' t i ws rv w :
  snd s' = snd s ++ [OEv (EvStarted t i ws rv)] -> core_of s' = core_of s ->
  hd_error ws = Some w -> core_root (core_of s) t w ->
  (forall x, task_state s' x = Some JR -> x = t \/ task_state s x = Some JR) -> SQ s s'.
Proof.
  intros E Ec Hh Hr Hjr pre [HF HL]. unfold IQ. rewrite E, Ec, app_assoc. split.
  - refine (fin_app (fun l t => cur l t <> None) _ _ HF _). intros p t0 q Ep. destruct (fin_one _ _ _ _ Ep) as [Eo _]. discriminate Eo.
  - intros x Hx. rewrite cur_snoc. unfold cur_step. cbn [kind_of]. destruct (tid_eqb t x) eqn:Ex.
    + apply tid_eqb_eq in Ex. subst x. exists w. split; assumption.
    + destruct (Hjr x Hx) as [->|H1]; [rewrite tid_eqb_refl in Ex; discriminate | exact (HL x H1)].
Qed.
