(** C03, the dependency invariant, part 2: what the reactor's functions do to the task map, seen
    as a function [fm c = find_task (c_tasks c)].
    [scr c c']: only states / instance ids / crash counters of tasks moved, and no task with a
    positive dependency counter changed its state.  *)
From HQ Require Import Base.Prelude Cluster.Types Cluster.Core Cluster.Reactor Cluster.Worker Cluster.Server Cluster.Sys Cluster.ProofsJob Cluster.ProofsMore Cluster.ProofsTerminal Cluster.ProofsStep Cluster.BijBase Cluster.BijCore Cluster.BijHq Cluster.BijSt Cluster.BijReact Cluster.FrameGen Cluster.CrashFrame Cluster.InvDBase.
From HQ Require Import Cluster.ModelFacts.
From Coq Require Import ZArith Lia Sorting.Sorted.
Local Open Scope N_scope.

Arguments N.add : simpl never.
Arguments N.sub : simpl never.

Definition fm (c : core) : tmap := find_task (c_tasks c).

Lemma fm_id c id t : fm c id = Some t -> t_id t = id.
Proof. intros H. apply find_task_some in H. apply H. Qed.

(** Tasks that survive keep their dependency list (used for the job-layer side invariant). *)
Definition dsub (m m' : tmap) : Prop := forall id t', m' id = Some t' -> exists t, m id = Some t /\ t_deps t' = t_deps t.
Lemma dsub_refl m : dsub m m.
Proof. intros id t H. eauto. Qed.
Lemma dsub_trans m1 m2 m3 : dsub m1 m2 -> dsub m2 m3 -> dsub m1 m3.
Proof. intros A B id t3 H. destruct (B _ _ H) as (t2 & H2 & E2). destruct (A _ _ H2) as (t1 & H1 & E1). exists t1. split; [exact H1 | congruence]. Qed.
Lemma SC_dsub m m' : SC m m' -> dsub m m'.
Proof. intros S id t' H. destruct (SC_some' _ _ _ _ S H) as (t & Et & (_ & Hd & _) & _). eauto. Qed.
Lemma dsub_ext m m' : (forall x, m' x = m x) -> dsub m m'.
Proof. intros E id t H. rewrite E in H. eauto. Qed.

Definition scr (c c' : core) : Prop := (TS c -> TS c') /\ SC (fm c) (fm c').

Lemma scr_refl c : scr c c.
Proof. split; [auto | apply SC_refl]. Qed.
Lemma scr_trans c1 c2 c3 : scr c1 c2 -> scr c2 c3 -> scr c1 c3.
Proof. intros [A1 B1] [A2 B2]. split; [auto | eapply SC_trans; eassumption]. Qed.
Lemma scr_tasks c c' : c_tasks c' = c_tasks c -> scr c c'.
Proof. intros E. split; [unfold TS; rewrite E; auto | apply SC_ext; intros x; unfold fm; rewrite E; reflexivity]. Qed.

Lemma scr_upd c c1 cres id t x :
  c_tasks c1 = c_tasks c -> find_task (c_tasks c) id = Some t -> c_tasks cres = set_task (c_tasks c1) x ->
  same_edges t x -> st_step (t_state t) (t_state x) -> scr c cres.
Proof.
  intros E1 Ef Er He Hs. destruct (find_task_some _ _ _ Ef) as [_ Hid]. destruct He as (Hi & Hd & Hc).
  assert (Efx : find_task (c_tasks c) (t_id x) = Some t) by (rewrite Hi, Hid; exact Ef).
  split.
  - unfold TS. intros Hs0. rewrite Er, E1, (set_task_ids _ _ _ Hs0 Efx). exact Hs0.
  - eapply (SC_upd _ _ id t x); [exact Ef | repeat split; assumption | exact Hs|].
    intros y. unfold fm. rewrite Er, E1, find_set_task. unfold mupd. rewrite Hi, Hid. reflexivity.
Qed.

(** Solve [st_step (t_state t) s'] from an equation for [t_state t]. *)
Ltac ststep :=
  try match goal with E : t_state ?t = _ |- st_step (t_state ?t) _ => rewrite E end;
  first [ left; reflexivity | right; split; cbn; auto; fail ].
Ltac edges := repeat split.

Lemma scr_dsub c c' : scr c c' -> dsub (fm c) (fm c').
Proof. intros [_ S]. apply SC_dsub. exact S. Qed.

Lemma scr_z_old c c' id t t' : scr c c' -> fm c id = Some t -> fm c' id = Some t' -> z_old (t_state t) -> z_old (t_state t').
Proof.
  intros [_ S] E E' Z. destruct (SC_some _ _ _ _ S E) as (t2 & E2 & _ & St). rewrite E' in E2. inversion E2; subst.
  eapply st_step_z_old; eassumption.
Qed.

Lemma retract_states_scr ids : forall c acc c' acc', retract_states c ids acc = Ok (c', acc') -> scr c c'.
Proof.
  induction ids as [|id r IH]; cbn [retract_states]; intros c acc c' acc' H; [inversion H; subst; apply scr_refl|].
  apply bind_ok in H. destruct H as (t & Ht & H). apply get_task_find in Ht.
  destruct (t_state t) eqn:Est; try discriminate.
  apply bind_ok in H. destruct H as (wk & _ & H). apply bind_ok in H. destruct H as (wk' & _ & H).
  eapply scr_trans; [|eapply IH; exact H].
  eapply (scr_upd c c _ id t); [reflexivity | exact Ht | reflexivity | edges | ststep].
Qed.

Lemma process_retracted_scr s r s' : process_retracted s r = Ok s' -> scr (core_of s) (core_of s').
Proof.
  unfold process_retracted. intros H. destruct r; [inversion H; subst; apply scr_refl|].
  apply bind_ok in H. destruct H as ([c' groups] & H1 & H). rewrite (send_all_core _ _ _ H). cbn.
  eapply retract_states_scr; exact H1.
Qed.

Lemma task_running_scr s w id rv s' b : task_running s w id rv = Ok (s', b) -> scr (core_of s) (core_of s').
Proof.
  intros H. unfold task_running in H.
  destruct (find_task (c_tasks (core_of s)) id) as [t|] eqn:Ef; [|inversion H; subst; apply scr_refl].
  apply bind_ok in H. destruct H as (rq & _ & H). apply bind_ok in H. destruct H as ([s1 ws] & H1 & H).
  apply bind_ok in H. destruct H as (s2 & H2 & H). inversion H; subst.
  destruct (process_task_started_active _ _ _ _ _ _ H2) as [C2 _]. unfold core_same in C2. rewrite C2.
  destruct (t_state t) eqn:Est; try discriminate.
  - destruct (negb (N.eqb w0 w)); [discriminate|]. destruct (negb (N.eqb rv0 rv)); [discriminate|]. inversion H1; subst.
    eapply (scr_upd _ (core_of s) _ id t); [reflexivity | exact Ef | reflexivity | edges | ststep].
  - destruct (negb (N.eqb w0 w)); [discriminate|]. inv_binds H1. inversion H1; subst.
    eapply (scr_upd _ (core_of s) _ id t); [reflexivity | exact Ef | reflexivity | edges | ststep].
  - destruct (negb (N.eqb w0 w)); [discriminate|].
    apply bind_ok in H1. destruct H1 as (c1 & Hc1 & H1). inv_binds H1. inversion H1; subst.
    pose proof (try_remove_redirection_tasks _ _ _ Hc1) as T1.
    eapply (scr_upd _ c1 _ id t); [exact T1 | exact Ef | reflexivity | edges | ststep].
  - destruct ws0; [discriminate|]. destruct (N.eqb w0 w); [|discriminate]. inversion H1; subst. apply scr_refl.
Qed.

Lemma requeue_scr s t c1 s' b :
  c_tasks c1 = c_tasks (core_of s) -> find_task (c_tasks (core_of s)) (t_id t) = Some t -> z_old (t_state t) ->
  (do (qs, ret) <- add_ready_task (c_queues c1) (with_state t (Waiting 0));
   do s'' <- process_retracted (st_core s (with_queues (upd_task c1 (with_state t (Waiting 0))) qs)) ret;
   Ok (s'', true)) = Ok (s', b) -> scr (core_of s) (core_of s').
Proof.
  intros Et Ef Z Hx. inv_binds Hx. inversion Hx; subst.
  match goal with X : process_retracted ?s0 _ = Ok _ |- _ => pose proof (process_retracted_scr _ _ _ X) as S2 end.
  eapply scr_trans; [|exact S2].
  eapply (scr_upd _ c1 _ (t_id t) t); [exact Et | exact Ef | reflexivity | edges | right; split; [exact Z | reflexivity]].
Qed.

Lemma task_reject_scr s w id rv s' b : task_reject s w id rv = Ok (s', b) -> scr (core_of s) (core_of s').
Proof.
  intros H. unfold task_reject in H.
  destruct (find_task (c_tasks (core_of s)) id) as [t|] eqn:Ef; [|inversion H; subst; apply scr_refl].
  destruct (find_task_some _ _ _ Ef) as [_ Hid].
  assert (Ef' : find_task (c_tasks (core_of s)) (t_id t) = Some t) by (rewrite Hid; exact Ef).
  apply bind_ok in H. destruct H as (wk & _ & H). apply bind_ok in H. destruct H as (rq & _ & H).
  apply bind_ok in H. destruct H as ([c1 cont] & Hr & H).
  assert (Et : c_tasks c1 = c_tasks (core_of s) /\ z_old (t_state t)).
  { destruct (t_state t); try discriminate.
    - split; [|exact I]. destruct (negb (N.eqb w w0)); [inversion Hr; reflexivity|].
      destruct rv as [v|]; [|inversion Hr; reflexivity].
      destruct (N.eqb v rv0); [inv_binds Hr|]; inversion Hr; reflexivity.
    - split; [|exact I]. inv_binds Hr. inversion Hr; reflexivity.
    - split; [|exact I]. destruct (negb (N.eqb w w0)); inversion Hr; reflexivity. }
  destruct Et as [Et Z].
  destruct (t_state t) eqn:Est; try (eapply requeue_scr; [exact Et | exact Ef' | rewrite Est; exact Z | exact H]).
  destruct cont.
  - destruct (find_redirect (c_redirects c1) id) as [[target rvt]|].
    + apply bind_ok in H. destruct H as (s1 & H1 & H). inversion H; subst.
      rewrite (send_worker_core _ _ _ _ H1).
      eapply (scr_upd _ c1 _ (t_id t) t); [exact Et | exact Ef' | reflexivity | edges | ststep].
    + eapply requeue_scr; [exact Et | exact Ef' | rewrite Est; exact Z | exact H].
  - inversion H; subst. apply scr_tasks. exact Et.
Qed.

Lemma request_enabled_tasks s w rq rv s' : request_enabled s w rq rv = Ok s' -> c_tasks (core_of s') = c_tasks (core_of s).
Proof. unfold request_enabled. intros H. inv_binds H. inversion H; subst. reflexivity. Qed.

Lemma retract_response_states_scr ids : forall c w acc c' acc',
  retract_response_states c w ids acc = (c', acc') -> scr c c'.
Proof.
  induction ids as [|id r IH]; cbn [retract_response_states]; intros c w acc c' acc' H; [inversion H; subst; apply scr_refl|].
  destruct (find_task (c_tasks c) id) as [t|] eqn:Ef; [|eapply IH; eassumption].
  destruct (t_state t) eqn:Est; try (eapply IH; eassumption).
  destruct (N.eqb w w0); [|eapply IH; eassumption].
  destruct (find_redirect _ id) as [[target rv]|].
  - eapply scr_trans; [|eapply IH; exact H].
    eapply (scr_upd c c _ id t); [reflexivity | exact Ef | reflexivity | edges | ststep].
  - eapply scr_trans; [|eapply IH; exact H].
    eapply (scr_upd c c _ id t); [reflexivity | exact Ef | reflexivity | edges | ststep].
Qed.

Lemma on_retract_response_scr s w ids s' : on_retract_response s w ids = Ok s' -> scr (core_of s) (core_of s').
Proof.
  unfold on_retract_response. intros H. destruct (retract_response_states _ w ids []) as [c' groups] eqn:E.
  apply bind_ok in H. destruct H as (s2 & H & H2).
  assert (X2 : scr (core_of s) (core_of s2)).
  { rewrite (send_redirected_core _ _ _ H). cbn. eapply retract_response_states_scr; exact E. }
  destruct (retract_wakes _ _ _ _); inversion H2; subst s'; clear H2; [|exact X2].
  eapply scr_trans; [exact X2 | apply scr_tasks; reflexivity].
Qed.

Lemma lost_retracting_scr l : forall s w s', lost_retracting s w l = Ok s' -> scr (core_of s) (core_of s').
Proof.
  induction l as [|id r IH]; cbn [lost_retracting]; intros s w s' H; [inversion H; subst; apply scr_refl|].
  apply bind_ok in H. destruct H as (t & Ht & H). apply get_task_find in Ht.
  destruct (t_state t) eqn:Est; try (eapply IH; eassumption).
  destruct (N.eqb w w0); [|eapply IH; eassumption].
  destruct (find_redirect _ id) as [[target rv]|].
  - apply bind_ok in H. destruct H as (s1 & H1 & H).
    eapply scr_trans; [|eapply IH; exact H]. rewrite (send_worker_core _ _ _ _ H1).
    eapply (scr_upd _ (core_of s) _ id t); [reflexivity | exact Ht | reflexivity | edges | cbn; ststep].
  - eapply scr_trans; [|eapply IH; exact H].
    eapply (scr_upd _ (core_of s) _ id t); [reflexivity | exact Ht | reflexivity | edges | cbn; ststep].
Qed.

(** The lost worker's assigned tasks: the model does not look at the state of a task that is
    neither Running nor Retracting, so the caller must know it carries no positive counter. *)
Lemma lost_assigned_scr l : forall c running ret c' running' ret',
  (forall id t, In id l -> fm c id = Some t -> z_old (t_state t)) ->
  lost_assigned c l running ret = Ok (c', running', ret') -> scr c c'.
Proof.
  induction l as [|id r IH]; cbn [lost_assigned]; intros c running ret c' running' ret' HZ H; [inversion H; subst; apply scr_refl|].
  apply bind_ok in H. destruct H as (t & Ht & H). apply get_task_find in Ht.
  apply bind_ok in H. destruct H as ([[c1 t1] running1] & H1 & H).
  apply bind_ok in H. destruct H as ([qs rt] & _ & H).
  pose proof (HZ id t (or_introl eq_refl) Ht) as Z.
  assert (E1 : c_tasks c1 = c_tasks c /\ same_edges t t1 /\ st_step (t_state t) (t_state t1)).
  { destruct (t_state t) eqn:Est; try (inversion H1; subst; split; [reflexivity | split; [edges | right; split; [exact Z | reflexivity]]]).
    destruct (find_redirect _ id); inversion H1; subst. split; [reflexivity | split; [edges | left; exact Est]]. }
  destruct E1 as (Et & He & Hs).
  assert (S1 : scr c (with_queues (upd_task c1 (with_inst t1 (t_inst t1 + 1))) qs)).
  { eapply (scr_upd c c1 _ id t); [exact Et | exact Ht | reflexivity | destruct He as (A & B & C); edges; assumption | exact Hs]. }
  eapply scr_trans; [exact S1|]. eapply IH; [|exact H].
  intros id' t' Hin' E'. destruct S1 as [_ S1]. destruct (SC_some' _ _ _ _ S1 E') as (t0 & E0 & _ & St0).
  eapply st_step_z_old; [exact St0|]. eapply HZ; [right; exact Hin' | exact E0].
Qed.
