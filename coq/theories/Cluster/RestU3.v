(** C02 "at rest": a task the core knows is never stop-cancelled on a worker.
    [SCN s]: if the future of task [x] on some worker process carries the stop flag [SCancel], the
    core does not know [x] (any more).  A worker sets that flag only when it processes a CancelTasks
    message, and the protocol invariant says that such a message never names a task the core knows;
    a task that has left the core never comes back.  The server itself never touches a future: its
    functions change a worker process only by appending to its down channel - relation [FB].
    Which messages are appended does not matter here (that is [ExecU5.PR]), so no function needs a
    hypothesis. *)
From HQ Require Import Base.Prelude Cluster.Types Cluster.Core Cluster.Reactor Cluster.Worker Cluster.Server Cluster.Sys Cluster.NoPanicL0 Cluster.NoPanicU1 Cluster.StepShape Cluster.ProofsFinal Cluster.BijFinal Cluster.InvDStep Cluster.InvBundle Cluster.NoPanicU0 Cluster.NoPanicU2 Cluster.NoPanicU4 Cluster.NoPanicU20 Cluster.ExecU13.
From HQ Require Import Cluster.RejHyp.
From HQ Require Import Cluster.ModelFacts.
From Coq Require Import Sorting.Sorted.
Local Open Scope N_scope.

Definition server_op (o : op) : Prop :=
  match o with OpConnect _ _ | OpDDown _ _ | OpEnd _ _ _ | OpFailNext _ _ | OpTimer => False | _ => True end.

Definition same_body (p p' : wproc) : Prop := wp_down p (p_down p') = p'.
Lemma same_body_refl p : same_body p p.
Proof. unfold same_body. destruct p; reflexivity. Qed.
Lemma same_body_trans a b c : same_body a b -> same_body b c -> same_body a c.
Proof. unfold same_body. intros <- <-. destruct a; reflexivity. Qed.
Lemma same_body_push p m : same_body p (push_down p m).
Proof. unfold same_body. destruct p; reflexivity. Qed.
Lemma same_body_fut p p' : same_body p p' -> p_futures p' = p_futures p /\ p_running p' = p_running p /\ p_backlog p' = p_backlog p /\ p_up p' = p_up p /\ p_id p' = p_id p.
Proof. unfold same_body. intros <-. cbn. auto. Qed.

Definition FB (s s' : st) : Prop :=
  forall w p', find_proc (s_procs (fst s')) w = Some p' -> exists p, find_proc (s_procs (fst s)) w = Some p /\ same_body p p'.

Lemma FB_procs s s' : s_procs (fst s') = s_procs (fst s) -> FB s s'.
Proof. intros Ep w p' H. rewrite Ep in H. exists p'. split; [exact H | apply same_body_refl]. Qed.
Lemma FB_refl s : FB s s.
Proof. apply FB_procs. reflexivity. Qed.
Lemma FB_core s c : FB s (st_core s c).
Proof. apply FB_procs. reflexivity. Qed.
Lemma FB_CP s s' : CP s' = CP s -> FB s s'.
Proof. intros E. apply FB_procs. exact (f_equal snd E). Qed.
Lemma FB_trans a b c : FB a b -> FB b c -> FB a c.
Proof.
  intros P1 P2 w p3 H3. destruct (P2 w p3 H3) as (p2 & H2 & B2). destruct (P1 w p2 H2) as (p1 & H1 & B1).
  exists p1. split; [exact H1 | eapply same_body_trans; eassumption].
Qed.

Lemma FB_send s w m s' : send_worker s w m = Ok s' -> FB s s'.
Proof.
  unfold send_worker. intros H. destruct (find_proc (s_procs (fst s)) w) as [p|] eqn:Ep; [|discriminate]. inversion H; subst s'.
  destruct (find_proc_some _ _ _ Ep) as [_ Hid].
  intros w' p' H'. cbn [fst with_procs s_procs] in H'. rewrite find_set_proc in H'. cbn [push_down p_id] in H'. rewrite Hid in H'.
  destruct (N.eqb w' w) eqn:E.
  - apply N.eqb_eq in E. subst w'. inversion H'; subst p'. exists p. split; [exact Ep | apply same_body_push].
  - exists p'. split; [exact H' | apply same_body_refl].
Qed.
Lemma FB_broadcast s m : FB s (broadcast s m).
Proof.
  intros w p' H'. unfold broadcast in H'. cbn [fst with_procs s_procs] in H'.
  rewrite (find_map_proc (fun p => push_down p m)) in H' by reflexivity.
  destruct (find_proc (s_procs (fst s)) w) as [p|]; [|discriminate]. inversion H'; subst p'. exists p. split; [reflexivity | apply same_body_push].
Qed.
Lemma FB_send_all msgs : forall s s', send_all s msgs = Ok s' -> FB s s'.
Proof.
  induction msgs as [|[w m] r IH]; cbn [send_all]; intros s s' H; [inversion H; subst; apply FB_refl|].
  apply bind_ok in H. destruct H as (s1 & H1 & H). eapply FB_trans; [eapply FB_send; exact H1 | eapply IH; exact H].
Qed.

Lemma process_retracted_FB s r s' : process_retracted s r = Ok s' -> FB s s'.
Proof.
  unfold process_retracted. intros H. destruct r; [inversion H; subst; apply FB_refl|].
  apply bind_ok in H. destruct H as ([c' groups] & _ & H).
  eapply FB_trans; [apply (FB_core s c') | eapply FB_send_all; exact H].
Qed.

Lemma cancel_release_FB ids : forall s u r s1 u' r', cancel_release s ids u r = Ok (s1, u', r') -> FB s s1.
Proof.
  induction ids as [|id rest IH]; cbn [cancel_release]; intros s u r s1 u' r' H; [inversion H; subst; apply FB_refl|].
  destruct (find_task _ id) as [t|]; [|eapply IH; eassumption].
  dec H; (eapply FB_trans; [|eapply IH; exact H]); apply FB_procs; reflexivity.
Qed.

Lemma on_cancel_tasks_FB s ids s' : on_cancel_tasks s ids = Ok s' -> FB s s'.
Proof.
  unfold on_cancel_tasks. intros H.
  apply bind_ok in H. destruct H as ([[s1 u] r] & H1 & H). apply bind_ok in H. destruct H as (c' & _ & H).
  eapply FB_trans; [eapply cancel_release_FB; exact H1|].
  eapply FB_trans; [apply (FB_core s1 c') | eapply FB_send_all; exact H].
Qed.

Lemma task_failed_FB s w id k s' : task_failed s w id k = Ok s' -> FB s s'.
Proof.
  unfold task_failed. intros H. cbv zeta in H. destruct (find_task _ id) as [t|]; [|inversion H; subst; apply FB_refl].
  apply bind_ok in H. destruct H as (rq & _ & H). apply bind_ok in H. destruct H as (c1 & _ & H).
  apply bind_ok in H. destruct H as (csm & _ & H). apply bind_ok in H. destruct H as (c2 & _ & H).
  apply bind_ok in H. destruct H as ([c3 stt] & _ & H). apply bind_ok in H. destruct H as (u & _ & H).
  apply bind_ok in H. destruct H as ([s1 cids] & H4 & H).
  assert (R4 : FB s s1) by (eapply FB_trans; [apply (FB_core s c3) | apply FB_CP; eapply process_task_failed_CP; exact H4]).
  destruct cids; [inversion H; subst; exact R4|].
  eapply FB_trans; [exact R4 | eapply on_cancel_tasks_FB; exact H].
Qed.

Lemma task_finished_FB s w id s' b : task_finished s w id = Ok (s', b) -> FB s s'.
Proof.
  unfold task_finished. intros H. cbv zeta in H. destruct (find_task _ id) as [t|]; [|inversion H; subst; apply FB_refl].
  apply bind_ok in H. destruct H as (rq & _ & H). apply bind_ok in H. destruct H as (c1 & _ & H).
  apply bind_ok in H. destruct H as (s1 & H2 & H). apply bind_ok in H. destruct H as ([c3 ret] & _ & H).
  apply bind_ok in H. destruct H as (s2 & H4 & H). apply bind_ok in H. destruct H as ([c4 stt] & _ & H).
  destruct stt; try discriminate. inversion H; subst.
  eapply FB_trans; [apply FB_core|]. eapply FB_trans; [apply FB_CP; eapply process_task_finished_CP; exact H2|].
  eapply FB_trans; [apply (FB_core s1 c3)|].
  eapply FB_trans; [eapply process_retracted_FB; exact H4 | apply FB_core].
Qed.

Lemma task_running_FB s w id rv s' b : task_running s w id rv = Ok (s', b) -> FB s s'.
Proof.
  unfold task_running. intros H. cbv zeta in H. destruct (find_task _ id) as [t|]; [|inversion H; subst; apply FB_refl].
  apply bind_ok in H. destruct H as (rq & _ & H). apply bind_ok in H. destruct H as ([s1 ws] & H1 & H).
  apply bind_ok in H. destruct H as (s2 & H2 & H). inversion H; subst.
  eapply FB_trans; [|apply FB_CP; eapply process_task_started_CP; exact H2].
  dec H1; inversion H1; subst; apply FB_procs; reflexivity.
Qed.

Lemma requeue_FB s t c1 s' b :
  (do (qs, ret) <- add_ready_task (c_queues c1) (with_state t (Waiting 0));
   do s'' <- process_retracted (st_core s (with_queues (upd_task c1 (with_state t (Waiting 0))) qs)) ret;
   Ok (s'', true)) = Ok (s', b) -> FB s s'.
Proof.
  intros Hx. apply bind_ok in Hx. destruct Hx as ([qs ret] & _ & Hx). apply bind_ok in Hx. destruct Hx as (s2 & H2 & Hx).
  inversion Hx; subst. eapply FB_trans; [apply FB_core | eapply process_retracted_FB; exact H2].
Qed.

Lemma task_reject_FB s w id rv s' b : task_reject s w id rv = Ok (s', b) -> FB s s'.
Proof.
  unfold task_reject. intros H. cbv zeta in H. destruct (find_task _ id) as [t|]; [|inversion H; subst; apply FB_refl].
  apply bind_ok in H. destruct H as (wk & _ & H). apply bind_ok in H. destruct H as (rq & _ & H).
  apply bind_ok in H. destruct H as ([c1 cont] & _ & H).
  destruct (t_state t); try (eapply requeue_FB; eassumption).
  destruct cont; [|inversion H; subst; apply FB_core].
  destruct (find_redirect _ id) as [[target rvt]|]; [|eapply requeue_FB; eassumption].
  apply bind_ok in H. destruct H as (s1 & H1 & H). inversion H; subst.
  eapply FB_trans; [apply FB_core | eapply FB_send; exact H1].
Qed.

Lemma request_enabled_FB s w rq rv s' : request_enabled s w rq rv = Ok s' -> FB s s'.
Proof. unfold request_enabled. intros H. dec H. inversion H; subst. apply FB_core. Qed.

Lemma on_task_update_FB s w us s' : on_task_update s w us = Ok s' -> FB s s'.
Proof.
  apply (on_task_update_rel FB FB_refl FB_trans); [|intros x; apply FB_procs; reflexivity].
  intros x w0 u x' n Hu. destruct u; cbn [apply_one] in Hu.
  - eapply task_finished_FB; exact Hu.
  - apply bind_ok in Hu. destruct Hu as (s2 & H2 & Hu). inversion Hu; subst. eapply task_failed_FB; exact H2.
  - eapply task_running_FB; exact Hu.
  - eapply task_running_FB; exact Hu.
  - eapply task_reject_FB; exact Hu.
  - apply bind_ok in Hu. destruct Hu as (s2 & H2 & Hu). inversion Hu; subst. eapply request_enabled_FB; exact H2.
Qed.

Lemma send_redirected_FB gs : forall s s', send_redirected s gs = Ok s' -> FB s s'.
Proof.
  induction gs as [|[target ts] r IH]; cbn [send_redirected]; intros s s' H; [inversion H; subst; apply FB_refl|].
  apply bind_ok in H. destruct H as (cts & _ & H). apply bind_ok in H. destruct H as (s1 & H1 & H).
  eapply FB_trans; [eapply FB_send; exact H1 | eapply IH; exact H].
Qed.

Lemma on_retract_response_FB s w ids s' : on_retract_response s w ids = Ok s' -> FB s s'.
Proof.
  unfold on_retract_response. intros H. destruct (retract_response_states _ w ids []) as [c' groups].
  apply bind_ok in H. destruct H as (s2 & H & H2).
  eapply FB_trans; [apply (FB_core s c')|]. eapply FB_trans; [eapply send_redirected_FB; exact H|].
  destruct (retract_wakes _ _ _ _); inversion H2; subst s'; apply FB_procs; reflexivity.
Qed.

Lemma on_new_tasks_FB s ts s' : on_new_tasks s ts = Ok s' -> FB s s'.
Proof.
  unfold on_new_tasks. intros H. destruct ts; [inversion H; subst; apply FB_refl|].
  apply bind_ok in H. destruct H as ([c' ret] & _ & H). apply bind_ok in H. destruct H as (s1 & H2 & H). inversion H; subst.
  eapply FB_trans; [apply (FB_core s c')|]. eapply FB_trans; [eapply process_retracted_FB; exact H2 | apply FB_procs; reflexivity].
Qed.

Lemma get_or_create_rq_FB s r : FB s (fst (get_or_create_rq s r)).
Proof.
  unfold get_or_create_rq. cbv zeta. destruct (rq_index _ r 0); cbn [fst]; [apply FB_refl|].
  eapply FB_trans; [apply FB_broadcast | apply FB_core].
Qed.

Lemma handle_cancel_FB s jid s' : handle_cancel s jid = Ok s' -> FB s s'.
Proof.
  unfold handle_cancel. intros H. destruct (find_job _ jid) as [j|]; [|inversion H; subst; apply FB_procs; reflexivity].
  cbv zeta in H. destruct (non_finished_task_ids j) as [|i ids]; [inversion H; subst; apply FB_procs; reflexivity|].
  apply bind_ok in H. destruct H as (s1 & H1 & H). apply bind_ok in H. destruct H as (al & _ & H).
  apply bind_ok in H. destruct H as (s2 & H2 & H). inversion H; subst.
  eapply FB_trans; [eapply on_cancel_tasks_FB; exact H1|].
  apply FB_procs. exact (f_equal snd (set_cancel_state_CP _ _ _ _ H2)).
Qed.

Lemma handle_close_FB s jid s' : handle_close s jid = Ok s' -> FB s s'.
Proof.
  unfold handle_close. intros H. destruct (find_job _ jid) as [j|]; [|inversion H; subst; apply FB_procs; reflexivity].
  destruct (j_open j); [|inversion H; subst; apply FB_procs; reflexivity].
  apply bind_ok in H. destruct H as (s1 & H1 & H). inversion H; subst.
  apply FB_procs. exact (f_equal snd (check_termination_CP _ _ _ H1)).
Qed.

Lemma handle_forget_FB s jid s' : handle_forget s jid = Ok s' -> FB s s'.
Proof.
  unfold handle_forget. intros H. destruct (find_job _ jid) as [j|]; [|inversion H; subst; apply FB_procs; reflexivity].
  apply bind_ok in H. destruct H as (na & _ & H). destruct (negb (j_open j) && na); inversion H; subst; apply FB_procs; reflexivity.
Qed.

Lemma send_mapping_FB m : forall s s', send_mapping s m = Ok s' -> FB s s'.
Proof.
  induction m as [|u r IH]; cbn [send_mapping]; intros s s' H; [inversion H; subst; apply FB_refl|].
  apply bind_ok in H. destruct H as (s1 & H1 & H). apply bind_ok in H. destruct H as (cts1 & _ & H).
  apply bind_ok in H. destruct H as (cts2 & _ & H). apply bind_ok in H. destruct H as (s2 & H2 & H).
  eapply FB_trans; [|eapply IH; exact H]. eapply FB_trans.
  - destruct (wu_retracts u); [inversion H1; subst; apply FB_refl | eapply FB_send; exact H1].
  - destruct (cts1 ++ cts2); [inversion H2; subst; apply FB_refl | eapply FB_send; exact H2].
Qed.

Lemma send_mn_FB l : forall s s', send_mn s l = Ok s' -> FB s s'.
Proof.
  induction l as [|id r IH]; cbn [send_mn]; intros s s' H; [inversion H; subst; apply FB_refl|].
  apply bind_ok in H. destruct H as (t & _ & H). destruct (t_state t); try discriminate. destruct ws; [discriminate|].
  apply bind_ok in H. destruct H as (s1 & H1 & H). eapply FB_trans; [eapply FB_send; exact H1 | eapply IH; exact H].
Qed.

Lemma run_scheduling_FB s sol s' : run_scheduling s sol = Ok s' -> FB s s'.
Proof.
  unfold run_scheduling. intros H. cbv zeta in H. destruct (negb (perm_of_set _ _)); [discriminate|].
  apply bind_ok in H. destruct H as ([c1 m1] & _ & H). apply bind_ok in H. destruct H as ([c2 mn] & _ & H).
  apply bind_ok in H. destruct H as ([c3 m3] & _ & H). apply bind_ok in H. destruct H as (s1 & H4 & H).
  apply bind_ok in H. destruct H as (s2 & H5 & H). inversion H; subst.
  eapply FB_trans; [apply (FB_core s c3)|]. eapply FB_trans; [exact (send_mapping_FB _ _ _ H4)|].
  eapply FB_trans; [exact (send_mn_FB _ _ _ H5) | apply FB_procs; reflexivity].
Qed.

Lemma lost_retracting_FB l : forall s w s', lost_retracting s w l = Ok s' -> FB s s'.
Proof.
  induction l as [|id r IH]; cbn [lost_retracting]; intros s w s' H; [inversion H; subst; apply FB_refl|].
  apply bind_ok in H. destruct H as (t & _ & H).
  destruct (t_state t) as [n|w1 rv1|w1|w1|w1 rv1|wsx|]; try (eapply IH; eassumption).
  destruct (N.eqb w w1); [|eapply IH; eassumption]. cbv zeta in H.
  destruct (find_redirect _ id) as [[target rv]|]; (eapply FB_trans; [apply FB_core|]).
  - apply bind_ok in H. destruct H as (s1 & Hs1 & H). eapply FB_trans; [eapply FB_send; exact Hs1 | eapply IH; exact H].
  - eapply IH; exact H.
Qed.

Lemma lost_fail_running_FB l : forall s reason s', lost_fail_running s reason l = Ok s' -> FB s s'.
Proof.
  apply (lost_fail_running_rel FB FB_refl FB_trans); [intros; apply FB_core|].
  intros s id k s' _ H. eapply task_failed_FB; exact H.
Qed.

(** the process of the lost worker is deleted first *)
Lemma on_remove_worker_FB s w reason a p t s' : psorted (s_procs (fst s)) -> on_remove_worker s w reason a p t = Ok s' -> FB s s'.
Proof.
  intros Hps H. unfold on_remove_worker in H.
  destruct (find_worker (c_workers (core_of s)) w) as [wk|]; [|discriminate].
  apply bind_ok in H. destruct H as ([[c2 running] retracted] & _ & H).
  set (s0 := (with_procs (fst s) (del_proc (s_procs (fst s)) w), snd s) : st) in *.
  destruct (negb (perm_of_set t _)); [discriminate|].
  apply bind_ok in H. destruct H as (s3 & H3 & H). apply bind_ok in H. destruct H as (s4 & H4 & H).
  apply bind_ok in H. destruct H as (s6 & H6 & H). apply bind_ok in H. destruct H as (s7 & H7 & H). inversion H; subst s'. clear H.
  assert (Rall : FB s0 (ask_scheduling s7)).
  { eapply FB_trans; [apply (FB_core s0 c2)|]. eapply FB_trans; [eapply lost_retracting_FB; exact H3|].
    eapply FB_trans; [eapply process_retracted_FB; exact H4|]. eapply FB_trans; [apply (FB_broadcast s4 (DLostWorker w))|].
    eapply FB_trans; [apply FB_CP; eapply process_worker_lost_CP; exact H6|].
    eapply FB_trans; [eapply lost_fail_running_FB; exact H7 | apply FB_procs; reflexivity]. }
  intros w' p' Hp'. destruct (Rall w' p' Hp') as (p0 & Hp0 & Hb). cbn [fst s0 with_procs s_procs] in Hp0.
  rewrite find_del_proc in Hp0 by exact Hps. destruct (N.eqb w' w); [discriminate|]. eauto.
Qed.

Theorem step_body s o s' outs : server_op o -> psorted (s_procs s) -> step s o = Ok (s', outs) ->
  forall w p', find_proc (s_procs s') w = Some p' -> exists p, find_proc (s_procs s) w = Some p /\ same_body (wp_up p (p_up p')) p'.
Proof.
  set (RB := fun a b : st => psorted (s_procs (fst a)) -> forall w p', find_proc (s_procs (fst b)) w = Some p' ->
               exists p, find_proc (s_procs (fst a)) w = Some p /\ same_body (wp_up p (p_up p')) p').
  (* [s1]: the state after the head of an up channel has been taken off (OpDUp), else [a] *)
  assert (Hfb : forall (a s1 b : st), FB s1 b ->
            (forall w1 p1, find_proc (s_procs (fst s1)) w1 = Some p1 -> exists p, find_proc (s_procs (fst a)) w1 = Some p /\ wp_up p (p_up p1) = p1) ->
            RB a b).
  { intros a s1 b HF Hpop _ w p' Hp'. destruct (HF w p' Hp') as (p1 & Hp1 & Hb). destruct (Hpop w p1 Hp1) as (p & Hp & E).
    destruct (same_body_fut _ _ Hb) as (_ & _ & _ & Eu & _). exists p. split; [exact Hp|]. rewrite Eu, E. exact Hb. }
  assert (Hsame : forall a b : st, FB a b -> RB a b).
  { intros a b HF. apply (Hfb a a b HF). intros w1 p1 H1. exists p1. split; [exact H1 | destruct p1; reflexivity]. }
  intros Ho Hps H. revert Hps. change (RB (s, []) (s', outs)). revert Ho H. apply (step_walk RB server_op).
  - intros ? ? ? ? [].
  - intros a w reason ao po to pw b _ _ H Hps. exact (Hsame _ _ (on_remove_worker_FB _ _ _ _ _ _ _ Hps H) Hps).
  - intros a o0 c x _. apply Hsame, FB_procs. reflexivity.
  - intros a job ids entries rq prio cl tlim mf b _ H.
    exact (Hsame _ _ (handle_submit_array_pass FB FB_trans (fun x y _ => FB_procs x y) get_or_create_rq_FB on_new_tasks_FB _ _ _ _ _ _ _ _ _ _ H)).
  - intros a job rqs ts mf b _ H.
    exact (Hsame _ _ (handle_submit_graph_pass FB FB_trans (fun x y _ => FB_procs x y) get_or_create_rq_FB on_new_tasks_FB _ _ _ _ _ _ H)).
  - intros a mf b _ H. apply Hsame, FB_procs. unfold handle_open in H. inversion H; reflexivity.
  - intros a j b _ H. exact (Hsame _ _ (handle_close_FB _ _ _ H)).
  - intros a j b _ H. exact (Hsame _ _ (handle_cancel_FB _ _ _ H)).
  - intros a j b _ H. exact (Hsame _ _ (handle_forget_FB _ _ _ H)).
  - intros a w p m rest b _ Hp Eu H.
    apply (Hfb (a, []) (with_procs a (set_proc (s_procs a) (wp_up p rest)), [OUp w m]));
      [destruct m; [eapply on_task_update_FB | eapply on_retract_response_FB]; exact H|].
    intros w1 p1 H1. cbn [fst s_procs with_procs] in H1 |- *. rewrite find_set_proc in H1. cbn [wp_up wp_upd p_id] in H1.
    rewrite (proj2 (find_proc_some _ _ _ Hp)) in H1.
    destruct (N.eqb w1 w) eqn:E; [|exists p1; split; [exact H1 | destruct p1; reflexivity]].
    apply N.eqb_eq in E. subst w1. inversion H1; subst p1. exists p. split; [exact Hp | reflexivity].
  - intros a sol b _ _ H. exact (Hsame _ _ (run_scheduling_FB _ _ _ H)).
  - intros a lj _ _. apply Hsame, FB_procs. reflexivity.
  - intros ? ? ? ? ? ? ? ? [].
  - intros ? ? ? ? ? ? ? [].
  - intros ? ? ? ? [].
  - intros ? [].
Qed.

Definition scan (p : wproc) (x : tid) : Prop := fu_find (p_futures p) x = Some (Some SCancel).
Definition SCN (s : sys) : Prop := forall p x, In p (s_procs s) -> scan p x -> find_task (c_tasks (s_core s)) x = None.

Lemma fu_find_set l t v x : fu_find (fu_set l t v) x = if tid_eqb x t then Some v else fu_find l x.
Proof.
  induction l as [|[k v0] r IH]; cbn [fu_set fu_find]; [destruct (tid_eqb x t); reflexivity|].
  destruct (tid_eqb t k) eqn:E1.
  - apply tid_eqb_eq in E1. subst k. cbn [fu_find]. destruct (tid_eqb x t); reflexivity.
  - destruct (tid_ltb t k); cbn [fu_find].
    + destruct (tid_eqb x t); reflexivity.
    + rewrite IH. destruct (tid_eqb x k) eqn:E2; [|reflexivity]. apply tid_eqb_eq in E2. subst k.
      destruct (tid_eqb x t) eqn:E3; [apply tid_eqb_eq in E3; subst; rewrite tid_eqb_refl in E1; discriminate | reflexivity].
Qed.

Lemma fu_find_del (l : list (tid * option stopkind)) t x v : fu_find (run_del l t) x = Some v -> exists v0, fu_find l x = Some v0.
Proof.
  induction l as [|[k v0] r IH]; cbn [run_del fu_find]; [discriminate|].
  destruct (tid_eqb t k); [intros H; destruct (tid_eqb x k); eauto|]. cbn [fu_find]. destruct (tid_eqb x k); [eauto | exact IH].
Qed.

Lemma try_start_scan q t rv pre alloc q1 u l st x : try_start_task q t rv pre alloc = (q1, u, l, st) -> scan q1 x -> scan q x.
Proof.
  unfold try_start_task, scan. destruct (tid_mem (wt_id t) (p_failnext q)); intros H; inversion H; subst; cbn [p_futures wp_failnext wp_upd]; [auto|].
  rewrite fu_find_set. destruct (tid_eqb x (wt_id t)); [discriminate | auto].
Qed.
Lemma prefill_loop_scan fuel x : forall q rq rv alloc ups ls q' ups' ls' used,
  prefill_loop fuel q rq rv alloc ups ls = (q', ups', ls', used) -> scan q' x -> scan q x.
Proof.
  induction fuel as [|k IH]; intros q rq rv alloc ups ls q' ups' ls' used H; cbn [prefill_loop] in H; [inversion H; subst; auto|].
  destruct (pop_last (bl_get (p_backlog q) rq)) as [[t rest]|]; [|inversion H; subst; auto].
  destruct (bl_has (p_backlog q) rq); [|inversion H; subst; auto].
  destruct (try_start_task (wp_backlog q (bl_set (p_backlog q) rq rest)) t rv true alloc) as [[[q1 u] l] started] eqn:Et.
  pose proof (try_start_scan _ _ _ _ _ _ _ _ _ x Et) as H1.
  destruct started; [inversion H; subst; exact H1 | intros Hs; apply H1; eapply IH; eassumption].
Qed.
Lemma compute_loop_scan ts x : forall q ups ls q' ups' ls', compute_loop q ts ups ls = Ok (q', ups', ls') -> scan q' x -> scan q x.
Proof.
  induction ts as [|ct r IH]; intros q ups ls q' ups' ls' H; cbn [compute_loop] in H; [inversion H; subst; auto|].
  destruct (ct_rv ct) as [rv|].
  - apply bind_ok in H. destruct H as (rq & _ & H). destruct (negb (N.eqb rv 0)); [discriminate|].
    destruct (res_fits (p_free q) (rq_res rq)).
    + match type of H with context [try_start_task ?p0 ?t rv false ?a] => destruct (try_start_task p0 t rv false a) as [[[q1 u] l] started] eqn:Et end.
      pose proof (try_start_scan _ _ _ _ _ _ _ _ _ x Et) as H1.
      destruct started; [intros Hs; apply H1; eapply IH; eassumption|].
      match type of H with context [prefill_loop ?f q1 ?a ?b ?c ?d ?e] => destruct (prefill_loop f q1 a b c d e) as [[[q2 u2] l2] usd] eqn:Ep end.
      intros Hs. apply H1. eapply prefill_loop_scan; [exact Ep|]. eapply IH; eassumption.
    + intros Hs. exact (IH _ _ _ _ _ _ H Hs).
  - intros Hs. exact (IH _ _ _ _ _ _ H Hs).
Qed.

Lemma cancel_fold_scan ids x : forall q, scan (fold_left cancel_task ids q) x -> scan q x \/ In x ids.
Proof.
  induction ids as [|i r IH]; intros q Hs; [left; exact Hs|]. cbn [fold_left] in Hs. destruct (IH _ Hs) as [A|A]; [|right; right; exact A].
  unfold cancel_task, scan in A. destruct (run_find (p_running q) i).
  - destruct (fu_find (p_futures q) i) as [[k|]|] eqn:Ef; try (left; exact A). cbn [p_futures wp_futures wp_upd] in A. rewrite fu_find_set in A.
    destruct (tid_eqb x i) eqn:E; [apply tid_eqb_eq in E; subst; right; left; reflexivity | left; exact A].
  - left. exact A.
Qed.

Lemma pwm_scan p m order p' ls x : process_worker_message p m order = Ok (p', ls) -> scan p' x ->
  scan p x \/ exists ids, m = DCancel ids /\ In x ids.
Proof.
  intros H Hs. destruct m as [ts|ids|ids|w0|w0|rq def|]; cbn [process_worker_message] in H.
  - apply bind_ok in H. destruct H as ([[p1 ups] ls1] & H1 & H). left. eapply compute_loop_scan; [exact H1|].
    destruct ups; inversion H; subst; exact Hs.
  - destruct (negb _); [discriminate|]. destruct (retract_from _ _ _ _) as [b out]. left. destruct ids; inversion H; subst; exact Hs.
  - inversion H; subst. destruct (cancel_fold_scan _ _ _ Hs) as [A|A]; [left; exact A | right; eauto].
  - inversion H; subst. left. exact Hs.
  - inversion H; subst. left. exact Hs.
  - destruct (N.eqb _ _); [|discriminate]. inversion H; subst. left. exact Hs.
  - inversion H; subst. left. exact Hs.
Qed.

Lemma fu_find_run_del (l : list (tid * option stopkind)) t x : StronglySorted tlt (map fst l) ->
  fu_find (run_del l t) x = if tid_eqb x t then None else fu_find l x.
Proof.
  intros Hs. destruct (tid_eqb x t) eqn:E.
  - apply tid_eqb_eq in E. subst x. apply fu_find_none. rewrite run_del_keys. apply kdel_not_in. exact Hs.
  - clear Hs. induction l as [|[k v] r IH]; cbn [run_del fu_find]; [reflexivity|].
    destruct (tid_eqb t k) eqn:E1.
    + apply tid_eqb_eq in E1. subst k. rewrite E. reflexivity.
    + cbn [fu_find]. destruct (tid_eqb x k); [reflexivity | exact IH].
Qed.

Lemma task_end_scan p t how p' ls x : StronglySorted tlt (map fst (p_futures p)) -> task_end p t how = Ok (p', ls) -> scan p' x -> scan p x.
Proof.
  intros Hsf H Hs. unfold task_end in H. destruct (fu_find (p_futures p) t) as [stop|]; [|discriminate].
  destruct (run_find (p_running p) t) as [rv|]; [|discriminate]. destruct (al_find (p_alloc p) t) as [[|rq alloc]|]; try discriminate.
  match type of H with context [prefill_loop ?f ?q0 ?a ?b ?c ?u0 []] => destruct (prefill_loop f q0 a b c u0 []) as [[[p1 ups1] ls1] usd] eqn:Ep end.
  match type of H with (let '(_, _) := ?e in _) = _ => destruct e as [p2 ups2] eqn:E2 end.
  assert (E : p_futures p2 = p_futures p1) by (destruct (negb usd); inversion E2; subst; reflexivity).
  assert (Hs1 : scan p1 x) by (unfold scan in *; rewrite <- E; destruct ups2; inversion H; subst; exact Hs).
  pose proof (prefill_loop_scan _ x _ _ _ _ _ _ _ _ _ _ Ep Hs1) as Hs0. unfold scan in Hs0. cbn [p_futures wp_upd] in Hs0.
  rewrite (fu_find_run_del _ _ _ Hsf) in Hs0. destruct (tid_eqb x t); [discriminate | exact Hs0].
Qed.

Lemma timer_fold_scan ts x : forall q, scan (fold_left timer_fire ts q) x -> scan q x.
Proof.
  induction ts as [|t r IH]; intros q Hs; [exact Hs|]. cbn [fold_left] in Hs. specialize (IH _ Hs). unfold timer_fire, scan in IH.
  cbn [p_futures wp_timers wp_upd] in IH. destruct (fu_find (p_futures q) t) as [[k|]|] eqn:Ef; try exact IH.
  cbn [p_futures wp_futures wp_upd] in IH. rewrite fu_find_set in IH. destruct (tid_eqb x t); [discriminate | exact IH].
Qed.

Lemma scan_seen s p x : PROTO s -> In p (s_procs s) -> scan p x -> seen (s_hq s) x = true.
Proof.
  intros HP Hp Hs. pose proof (pr_sorted _ HP) as Hps. pose proof (in_find_proc _ _ Hps Hp) as Hf.
  apply (pr_seen _ HP _ p x Hf). unfold proc_tids. apply in_app_iff. right. apply in_app_iff. right. apply in_app_iff. right.
  rewrite <- (lok_fut _ (proj1 (local_ok_LOK _) (pr_local _ HP _ _ Hf))). eapply fu_find_some_in. exact Hs.
Qed.

Lemma no_can_present s w p x t : PROTO s -> find_proc (s_procs s) w = Some p -> find_task (c_tasks (s_core s)) x = Some t ->
  forall ids rest, p_down p = DCancel ids :: rest -> ~ In x ids.
Proof.
  intros HP Hp Hf ids rest Ed Hin. pose proof (pr_words _ HP w p x t Hp Hf) as Hl. rewrite Ed in Hl.
  change (DCancel ids :: rest) with ([DCancel ids] ++ rest) in Hl. rewrite ditems_app in Hl. cbn [ditems flat_map ditems_msg] in Hl. rewrite app_nil_r in Hl.
  destruct (dcan_in x ids Hin) as (more & Em). unfold dcan in Em. rewrite Em in Hl. cbn [app] in Hl. exact (LW_can _ _ _ _ Hl).
Qed.

Theorem step_SCN s o s' outs : INV s -> INV s' -> PROTO s -> PROTO s' -> SCN s -> step s o = Ok (s', outs) -> SCN s'.
Proof.
  intros HI HI' HP HP' HS H. pose proof (pr_sorted _ HP) as Hps. pose proof (pr_sorted _ HP') as Hps'.
  assert (Hsrv : server_op o -> SCN s').
  { intros Ho p' x Hp' Hsc. destruct (find_task (c_tasks (s_core s')) x) as [t'|] eqn:Ef; [|reflexivity]. exfalso.
    destruct (step_body s o s' outs Ho Hps H _ p' (in_find_proc _ _ Hps' Hp')) as (p & Hp & Hb).
    pose proof (proj1 (same_body_fut _ _ Hb)) as Efu. cbn [p_futures wp_up wp_upd] in Efu.
    destruct (find_proc_some _ _ _ Hp) as [Hin _].
    assert (Hsc0 : scan p x) by (unfold scan in *; rewrite <- Efu; exact Hsc).
    pose proof (HS p x Hin Hsc0) as Hn.
    pose proof (new_unseen s s' outs x t' HI HI' (G_step _ _ _ _ (inv_fresh _ HI) H) Hn Ef) as Hu.
    rewrite (scan_seen s p x HP Hin Hsc0) in Hu. discriminate. }
  assert (Hset : forall w p p', find_proc (s_procs s) w = Some p -> s' = with_procs s (set_proc (s_procs s) p') ->
            (forall x, scan p' x -> scan p x \/ find_task (c_tasks (s_core s)) x = None) -> SCN s').
  { intros w p p' Hp -> Hsc q x Hq Hs. cbn [s_procs with_procs s_core] in *. destruct (in_set_proc _ _ _ Hq) as [->|Hq'].
    - destruct (Hsc x Hs) as [A|A]; [exact (HS p x (proj1 (find_proc_some _ _ _ Hp)) A) | exact A].
    - exact (HS q x Hq' Hs). }
  destruct o; try (apply Hsrv; exact I); clear Hsrv.
  - cbn [step] in H. unfold on_new_worker in H. cbv zeta in H. inversion H; subst s' outs. clear H.
    intros q x Hq Hs. cbn [fst snd emit ask_scheduling st_core with_core with_procs broadcast core_of s_core s_procs s_hq] in Hq |- *.
    destruct (in_set_proc _ _ _ Hq) as [->|Hq']; [cbn in Hs; discriminate|].
    apply in_map_iff in Hq'. destruct Hq' as (q0 & <- & Hin). exact (HS q0 x Hin Hs).
  - cbn [step] in H. destruct (find_proc (s_procs s) w) as [p|] eqn:Hp; [|discriminate].
    destruct (p_down p) as [|m rest] eqn:Ed; [discriminate|]. apply bind_ok in H. destruct H as ([p' ls] & Hm & H). inversion H; subst s' outs. clear H.
    apply (Hset w p p' Hp eq_refl). intros x Hs. destruct (pwm_scan _ _ _ _ _ x Hm Hs) as [A|(ids & -> & Hin)]; [left; exact A|]. right.
    destruct (find_task (c_tasks (s_core s)) x) as [t|] eqn:Ef; [|reflexivity]. exfalso. exact (no_can_present s w p x t HP Hp Ef ids rest Ed Hin).
  - cbn [step] in H. destruct (find_proc (s_procs s) w) as [p|] eqn:Hp; [|discriminate].
    apply bind_ok in H. destruct H as ([p' ls] & Hm & H). inversion H; subst s' outs. clear H.
    apply (Hset w p p' Hp eq_refl). intros x Hs. left. eapply task_end_scan; [|exact Hm | exact Hs].
    pose proof (proj1 (local_ok_LOK _) (pr_local _ HP _ _ Hp)) as HL. rewrite (lok_fut _ HL). exact (lok_sorted _ HL).
  - cbn [step] in H. destruct (find_proc (s_procs s) w) as [p|] eqn:Hp; [|discriminate]. inversion H; subst s' outs.
    apply (Hset w p _ Hp eq_refl). intros x Hs. left. exact Hs.
  - cbn [step] in H. inversion H; subst s' outs. intros q x Hq Hs. cbn [s_procs with_procs s_core] in *.
    apply in_map_iff in Hq. destruct Hq as (q0 & <- & Hin). exact (HS q0 x Hin (timer_fold_scan _ _ _ Hs)).
Qed.

Theorem reachable_SCN ops : forall reserve maxfill s outs,
  Forall op_wf ops -> ops_ok (init_sys reserve maxfill) ops = true -> run (init_sys reserve maxfill) ops = Ok (s, outs) -> SCN s.
Proof.
  induction ops as [|o pre IH] using rev_ind; intros reserve maxfill s outs Hwf Hok H.
  - cbn in H. inversion H; subst. intros p x [].
  - pose proof (proj1 (reachable_PROTO _ _ _ _ _ Hwf Hok H)) as HP'. pose proof (reachable_INV_ops _ _ _ _ _ Hwf Hok H) as HI'.
    apply Forall_app in Hwf. destruct Hwf as [Hwf1 Hwf2]. destruct (ops_ok_snoc _ _ _ Hok) as [Hok1 _].
    destruct (run_app _ _ _ _ _ H) as (s1 & o1 & o2 & H1 & H2 & ->). cbn [run] in H2. apply bind_ok in H2. destruct H2 as ([s2 o3] & Hs & H2). cbn in H2. inversion H2; subst s2 o2. clear H2.
    eapply step_SCN; [exact (reachable_INV_ops _ _ _ _ _ Hwf1 Hok1 H1) | exact HI' | exact (proj1 (reachable_PROTO _ _ _ _ _ Hwf1 Hok1 H1)) | exact HP' | exact (IH _ _ _ _ Hwf1 Hok1 H1) | exact Hs].
Qed.

