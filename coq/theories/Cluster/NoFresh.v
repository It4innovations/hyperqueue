(** The dynamic hypothesis [run_fresh] is DERIVED.

    The invariant theorems of InvW / InvQ / InvD / InvAll and everything built on them assume the
    executable hypothesis [run_fresh] (RejHyp.v): a reject the server processes comes from the
    worker the task is placed on and echoes its variant, and a failure reported for a task placed
    as multi-node concerns a multi-node request.  That is a statement about messages in flight.
    With the joint server / worker protocol invariant PROTO (NoPanicU*.v, [reachable_PROTO]) it
    follows from a STATIC well-formedness of the inputs, [ops_ok] (NoPanicU0.v [op_ok] along the
    run): a multi-node request class has no resource amounts; a scheduler answer uses variant 0,
    places single-node classes single-node and multi-node classes multi-node.  This file restates
    the headline theorems with [ops_ok] in place of [run_fresh]. *)
From HQ Require Import Base.Prelude Cluster.Types Cluster.Core Cluster.Sys Cluster.Monitors Cluster.RejHyp Cluster.BijFinal Cluster.InvWFinal Cluster.InvAll Cluster.InvBundle Cluster.InvWX1 Cluster.InvWX3 Cluster.NoPanicU0 Cluster.NoPanicU1 Cluster.NoPanicU20 Cluster.ReleaseCancel Cluster.StartFin2Base Cluster.StartFin2.
From Coq Require Import ZArith.
Local Open Scope N_scope.

Lemma fresh_of_ops ops reserve maxfill s outs :
  Forall op_wf ops -> ops_ok (init_sys reserve maxfill) ops = true -> run (init_sys reserve maxfill) ops = Ok (s, outs) ->
  run_fresh (init_sys reserve maxfill) ops = true.
Proof. intros Hwf Hok H. exact (proj2 (reachable_PROTO ops reserve maxfill s outs Hwf Hok H)). Qed.

Section Restated.
Variables (ops : list op) (reserve maxfill : N) (s : sys) (outs : list out).
Hypothesis Hwf : Forall op_wf ops.
Hypothesis Hok : ops_ok (init_sys reserve maxfill) ops = true.
Hypothesis Hrun : run (init_sys reserve maxfill) ops = Ok (s, outs).

Let Hf : run_fresh (init_sys reserve maxfill) ops = true := fresh_of_ops ops reserve maxfill s outs Hwf Hok Hrun.

Theorem reachable_all : INV s /\ PROTO s /\ MNE (s_core s) /\ RWA (s_core s).
Proof.
  split; [exact (reachable_INV _ _ _ _ _ Hwf Hf Hrun)|]. split; [exact (proj1 (reachable_PROTO ops reserve maxfill s outs Hwf Hok Hrun))|].
  exact (reachable_MNE_RWA _ _ _ _ _ Hwf Hf Hrun).
Qed.

Theorem worker_sets_invariant_ops :
  let c := s_core s in
  forallb (worker_sets_ok c) (c_workers c) = true /\
  (forall t, In t (c_tasks c) ->
     match t_state t with
     | Assigned w _ | Running w _ => (exists wk a p f, find_worker (c_workers c) w = Some wk /\ w_assign wk = Sn a p f /\ tid_mem (t_id t) a = true)
     | Prefilled w => (exists wk a p f, find_worker (c_workers c) w = Some wk /\ w_assign wk = Sn a p f /\ tid_mem (t_id t) p = true)
     | Retracting _ => forall target rv, find_redirect (c_redirects c) (t_id t) = Some (target, rv) ->
                         exists wk a p f, find_worker (c_workers c) target = Some wk /\ w_assign wk = Sn a p f /\ tid_mem (t_id t) a = true
     | RunningMN ws => forall w, In w ws -> exists wk root, find_worker (c_workers c) w = Some wk /\ w_assign wk = Mn (t_id t) root
     | _ => True
     end).
Proof. exact (worker_sets_invariant ops reserve maxfill s outs Hwf Hf Hrun). Qed.

Theorem deps_invariant_ops : forallb (deps_ok (s_core s)) (c_tasks (s_core s)) = true.
Proof. exact (deps_invariant_reachable ops reserve maxfill s outs Hwf Hf Hrun). Qed.

Theorem placed_task_has_no_pending_dependency_ops :
  forall t, In t (c_tasks (s_core s)) -> (match t_state t with Waiting _ => False | _ => True end) ->
  forall d, In d (t_deps t) -> find_task (c_tasks (s_core s)) d = None.
Proof. exact (placed_task_has_no_pending_dependency ops reserve maxfill s outs Hwf Hf Hrun). Qed.

Theorem cancel_releases_everything_ops j s' outs' :
  step s (OpCancel j) = Ok (s', outs') -> job_free_core (s_core s') j.
Proof. exact (cancel_releases_everything ops reserve maxfill s outs j s' outs' Hwf Hf Hrun). Qed.

Theorem finished_after_current_start_ops : FAS2 outs.
Proof. exact (finished_after_started_no_loss ops reserve maxfill s outs Hwf Hf Hrun). Qed.
End Restated.

Print Assumptions reachable_all.
Print Assumptions worker_sets_invariant_ops.
Print Assumptions cancel_releases_everything_ops.
