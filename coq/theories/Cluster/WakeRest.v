(** C02 "runnable work is not forgotten", the property-shaped statement AT REST.

    [rest_no_runnable_work]: in every reachable state at rest (scheduler flag off, every worker
    process with empty channels, nothing running, no task future) of a history whose scheduling
    answers meet the completeness contract [sched_complete] and whose checked steps keep
    [wake_inv] (WakeStep.v: proved for most operations, a monitored hypothesis for the rest),
    every NON-TERMINAL TASK OF THE JOB LAYER (waiting or running in its job) is known to the
    scheduler and is
      (a) waiting for an unfinished dependency ([Waiting n], n > 0), or
      (b) ready ([Waiting 0]) and CANNOT RUN ON ANY CONNECTED WORKER NOW: if its class has a ready
          task of the top ready priority then the class fits nowhere ([class_fits] = false: no
          connected single-node worker is unblocked with enough free resources / no group has
          enough free workers); otherwise a ready task of strictly higher priority of another
          class is waiting, and THAT class fits nowhere (the priority rule of C15), or
      (c) prefilled on a worker with its entry still in that worker's backlog.  This cannot last
          by itself only through the scheduler: the worker starts a backlog entry when a task of
          the same class ends there, and at rest nothing runs - such an entry is left behind
          when the task it queued behind was rejected or ended before the entry arrived; the
          prefilled task stays in the class's prefill set, which every scheduling round may
          place (C02_at_rest_waiting_or_backlog; the driver's monitor demands all-Waiting). *)
From HQ Require Import Base.Prelude Cluster.Types Cluster.Core Cluster.Reactor Cluster.Worker Cluster.Server Cluster.Sys Cluster.Monitors Cluster.BijBase Cluster.BijCore Cluster.BijReact Cluster.BijFinal Cluster.InvWBase Cluster.InvBundle Cluster.NoPanicU0 Cluster.NoPanicU20 Cluster.RestU1 Cluster.RestU12 Cluster.Wake Cluster.WakeStep.
From HQ Require Import Cluster.ModelFacts.
From Coq Require Import ZArith.
Local Open Scope N_scope.

Lemma indexed_in {A} (l : list A) : forall k i x, nth_error l i = Some x -> In ((k + i)%nat, x) (combine (seq k (length l)) l).
Proof.
  induction l as [|h t IH]; intros k i x H; [destruct i; discriminate|].
  destruct i as [|i]; cbn [nth_error] in H; cbn [length seq combine].
  - inversion H; subst. left. f_equal. lia.
  - right. replace (k + S i)%nat with (S k + i)%nat by lia. apply IH. exact H.
Qed.

Lemma not_placeable_class c top i q :
  placeable c = false -> queues_top_priority (c_queues c) = Some top -> nth_error (c_queues c) i = Some q ->
  at_top top q = true -> class_fits c i = false.
Proof.
  unfold placeable. intros H Ht Hq Ha. rewrite Ht in H.
  destruct (class_fits c i) eqn:E; [|reflexivity]. exfalso.
  assert (X : existsb (fun iq => at_top top (snd iq) && class_fits c (fst iq)) (indexed (c_queues c)) = true).
  { apply existsb_exists. exists (i, q). split; [exact (indexed_in (c_queues c) 0 i q Hq) | cbn [fst snd]; rewrite Ha, E; reflexivity]. }
  congruence.
Qed.

Lemma rest_not_busy ops r m s outs :
  Forall op_wf ops -> ops_ok (init_sys r m) ops = true -> run (init_sys r m) ops = Ok (s, outs) -> at_rest s ->
  busy (s_core s) = false.
Proof.
  intros Hwf Hok H Hrest. unfold busy. destruct (existsb (task_busy (s_core s)) (c_tasks (s_core s))) eqn:E; [|reflexivity]. exfalso.
  apply existsb_exists in E. destruct E as (t & Hin & Hb).
  pose proof (reachable_INV_ops _ _ _ _ _ Hwf Hok H) as HI. pose proof (cb_s _ (inv_cb _ HI)) as Hcs. change (core_of (s, [])) with (s_core s) in Hcs.
  pose proof (in_find_task _ _ (CS_sorted _ Hcs) Hin) as Hf.
  pose proof (at_rest_waiting_or_backlog _ _ _ _ _ Hwf Hok H Hrest _ _ Hf) as X. unfold rest_state in X.
  unfold task_busy in Hb. destruct (t_state t); try discriminate; try contradiction.
Qed.

Theorem rest_nothing_placeable_inv ops r m s outs :
  Forall op_wf ops -> ops_ok (init_sys r m) ops = true -> run (init_sys r m) ops = Ok (s, outs) -> at_rest s ->
  wake_inv s = true -> placeable (s_core s) = false.
Proof.
  intros Hwf Hok H Hrest HW. apply wake_inv_rest; [exact HW | exact (proj1 Hrest) | eapply rest_not_busy; eassumption].
Qed.

Theorem rest_nothing_placeable ops r m s outs :
  Forall op_wf ops -> ops_ok (init_sys r m) ops = true -> ops_complete (init_sys r m) ops = true -> ops_wake_checked (init_sys r m) ops = true ->
  run (init_sys r m) ops = Ok (s, outs) -> at_rest s -> placeable (s_core s) = false.
Proof.
  intros Hwf Hok Hc Hk H Hrest. eapply rest_nothing_placeable_inv; try eassumption. eapply wake_reachable; eassumption.
Qed.

Definition task_at_rest_ok (s : sys) (x : tid) (t : task) : Prop :=
  match t_state t with
  | Waiting n =>
      n <> 0 \/
      (n = 0 /\ forall top, queues_top_priority (c_queues (s_core s)) = Some top ->
                  at_top top (queue_of (s_core s) (t_rq t)) = true -> class_fits (s_core s) (N.to_nat (t_rq t)) = false)
  | Prefilled w => exists p, find_proc (s_procs s) w = Some p /\ bl_count x (p_backlog p) = 1%nat
  | _ => False
  end.

Theorem rest_no_runnable_work_inv ops r m s outs :
  Forall op_wf ops -> ops_ok (init_sys r m) ops = true -> run (init_sys r m) ops = Ok (s, outs) -> at_rest s -> wake_inv s = true ->
  forall j jb i, find_job (h_jobs (s_hq s)) j = Some jb -> (jt_find (j_tasks jb) i = Some JW \/ jt_find (j_tasks jb) i = Some JR) ->
  exists t, find_task (c_tasks (s_core s)) (j, i) = Some t /\ task_at_rest_ok s (j, i) t.
Proof.
  intros Hwf Hok H Hrest HW j jb i Hj Hst.
  pose proof (rest_nothing_placeable_inv _ _ _ _ _ Hwf Hok H Hrest HW) as Hnp.
  assert (Hin : In (j, i) (map t_id (c_tasks (s_core s)))).
  { apply (no_phantom_no_orphan _ _ _ _ _ Hwf H). exists jb. cbn [fst snd]. split; [exact Hj | exact Hst]. }
  destruct (find_task (c_tasks (s_core s)) (j, i)) as [t|] eqn:Hf; [|exfalso; exact (proj1 (find_task_none _ _) Hf Hin)].
  exists t. split; [reflexivity|].
  pose proof (at_rest_waiting_or_backlog _ _ _ _ _ Hwf Hok H Hrest _ _ Hf) as X. unfold rest_state in X. unfold task_at_rest_ok.
  destruct (t_state t) as [n|w1 rv1|w1|w1|w1 rv1|ws|]; try contradiction; [|exact X].
  destruct (N.eq_dec n 0) as [->|Hn]; [right | left; exact Hn]. split; [reflexivity|].
  intros top Ht Ha. unfold queue_of in Ha.
  destruct (nth_error (c_queues (s_core s)) (N.to_nat (t_rq t))) as [q|] eqn:Hq; [|discriminate].
  eapply not_placeable_class; eassumption.
Qed.

Theorem rest_no_runnable_work ops r m s outs :
  Forall op_wf ops -> ops_ok (init_sys r m) ops = true -> ops_complete (init_sys r m) ops = true -> ops_wake_checked (init_sys r m) ops = true ->
  run (init_sys r m) ops = Ok (s, outs) -> at_rest s ->
  forall j jb i, find_job (h_jobs (s_hq s)) j = Some jb -> (jt_find (j_tasks jb) i = Some JW \/ jt_find (j_tasks jb) i = Some JR) ->
  exists t, find_task (c_tasks (s_core s)) (j, i) = Some t /\ task_at_rest_ok s (j, i) t.
Proof.
  intros Hwf Hok Hc Hk H Hrest. eapply rest_no_runnable_work_inv; try eassumption. eapply wake_reachable; eassumption.
Qed.

(** Example: a history at rest meeting every hypothesis.  One worker with 4 cpus; job 1 = one
    task asking for 8 cpus, job 2 = one task asking for 1 cpu.  The first round places 2.0 (its
    answer is complete: 1.0 fits nowhere), 2.0 runs and finishes, the finish sets the flag, the
    second round answers "nothing" (complete again).  At rest: job 2 is finished, task 1.0 is
    ready and fits no connected worker - case (b) of the theorem. *)
Definition ex_big : rqdef := mkRq 0 [8; 0; 0].
Definition ex_small : rqdef := mkRq 0 [1; 0; 0].
Definition ex_ops : list op :=
  [OpConnect [4; 0; 0] 0;
   OpSubmit None [] None ex_big 0%Z CUnl false None; OpSubmit None [] None ex_small 0%Z CUnl false None;
   OpSched (mkSol [(1, 0, [(1, 1)])] [] [1] []);
   OpDDown 1 []; OpDDown 1 []; OpDDown 1 []; OpDUp 1; OpEnd 1 (2, 0) EndOk; OpDUp 1;
   OpSched (mkSol [] [] [1] [])].

Theorem rest_example :
  Forall op_wf ex_ops /\ ops_ok (init_sys 0 2) ex_ops = true /\ ops_complete (init_sys 0 2) ex_ops = true /\
  ops_wake_checked (init_sys 0 2) ex_ops = true /\
  exists s outs, run (init_sys 0 2) ex_ops = Ok (s, outs) /\ at_rest s /\
    map (fun t => (t_id t, t_state t)) (c_tasks (s_core s)) = [((1, 0), Waiting 0)] /\
    class_fits (s_core s) 0 = false /\ placeable (s_core s) = false /\
    map (fun jb => (j_id jb, j_tasks jb)) (h_jobs (s_hq s)) = [(1, [(0, JW)]); (2, [(0, JF)])].
Proof.
  split; [repeat constructor|]. split; [vm_compute; reflexivity|]. split; [vm_compute; reflexivity|]. split; [vm_compute; reflexivity|].
  destruct (run (init_sys 0 2) ex_ops) as [[s outs]| |] eqn:E; [|vm_compute in E; discriminate | vm_compute in E; discriminate].
  exists s, outs. split; [reflexivity|]. vm_compute in E. injection E as <- _.
  split; [apply at_restb_ok; vm_compute; reflexivity|]. vm_compute. repeat split.
Qed.

Print Assumptions rest_no_runnable_work.
Print Assumptions rest_example.
