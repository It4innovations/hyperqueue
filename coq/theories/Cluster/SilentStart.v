(** C01 / C08, "silent after terminal": once a terminal event of task [t] (EvFinished t,
    EvFailed t _, t in EvCanceled ts / EvAborted ts) is in the event stream of a history of the
    system model, NO later event names [t] at all - no second terminal event
    ([ProofsOnce.terminal_event_once]) and, new here, no [EvStarted t ..].

    Why it holds.  [EvStarted t ..] is emitted by [process_task_started] only, called by
    [task_running] only, and only for a task the CORE still has ([find_task .. = Some]); note that
    [process_task_started] itself does NOT look at the job state of the task (a terminal state is
    left alone, the event is emitted all the same), so the argument needs the link between core
    and job layer: a task the core knows has no outcome in the job layer ([SilentPA1.PA], the "no
    phantom task" direction of C02, which - unlike the full bijection - needs no hypothesis on the
    history: SilentPA2.v), a task named by a terminal event is [dead]
    ([ProofsOnce.ONCE]) and a dead task is not active ([active_not_dead]).  Every other function
    emits no start at all (shape pass of SilentBase.v with Q = "is not a start"). *)
From HQ Require Import Base.Prelude Cluster.Types Cluster.Core Cluster.Reactor Cluster.Worker Cluster.Server Cluster.Sys Cluster.Monitors Cluster.ProofsJob Cluster.ProofsMore Cluster.ProofsTerminal Cluster.ProofsStep Cluster.ProofsFinal Cluster.BijBase Cluster.BijCore Cluster.BijHq Cluster.BijSt Cluster.BijReact Cluster.BijFinal Cluster.ProofsOnce Cluster.RejHyp Cluster.InvDStep Cluster.ReactSplit Cluster.SilentBase Cluster.SilentPA1 Cluster.SilentPA2.
From Coq Require Import ZArith Lia.
Local Open Scope N_scope.

Arguments N.add : simpl never.
Arguments N.sub : simpl never.

Definition ev_names (e : event) : list tid :=
  match e with
  | EvStarted t _ _ _ => [t]
  | EvFinished t => [t]
  | EvFailed t _ => [t]
  | EvCanceled ts => ts
  | EvAborted ts => ts
  | _ => []
  end.

Definition starts_of (o : out) : list tid :=
  match o with OEv (EvStarted t _ _ _) => [t] | _ => [] end.
Definition starts (l : list out) : list tid := flat_map starts_of l.

Lemma starts_app a b : starts (a ++ b) = starts a ++ starts b.
Proof. unfold starts. apply flat_map_app. Qed.

Lemma ev_names_split e t : In t (ev_names e) -> In t (starts_of (OEv e)) \/ In t (tids_of (OEv e)).
Proof. destruct e; cbn; auto. Qed.

(** No start after a terminal event of the same task. *)
Definition NS (l : list out) : Prop :=
  forall a o b t, l = a ++ o :: b -> In t (tids_of o) -> ~ In t (starts b).

Definition Qns (o : out) : Prop := starts_of o = [].

Lemma Qns_plain o : plain o -> Qns o.
Proof. destruct o as [e| | | | | |]; try reflexivity. destruct e; try reflexivity. intros []. Qed.
Lemma Qns_direct o : direct o -> Qns o.
Proof. destruct o as [e| | | | | |]; try reflexivity. intros []. Qed.

Lemma Qns_starts ext : Forall Qns ext -> starts ext = [].
Proof. induction 1 as [|x r Hx _ IH]; [reflexivity|]. unfold starts in *. cbn [flat_map]. rewrite Hx, IH. reflexivity. Qed.

Lemma NS_nil : NS [].
Proof. intros a o b t E. destruct a; discriminate. Qed.

Lemma NS_nostarts ext : starts ext = [] -> NS ext.
Proof.
  intros E a o b t -> _. rewrite starts_app in E. apply app_eq_nil in E. destruct E as [_ E].
  change (o :: b) with ([o] ++ b) in E. rewrite starts_app in E. apply app_eq_nil in E. destruct E as [_ E]. rewrite E. intros [].
Qed.

Lemma NS_single o : NS [o].
Proof.
  intros a x b t E _. destruct a as [|y a']; [inversion E; subst; intros []|].
  inversion E as [[E1 E2]]. destruct a'; discriminate.
Qed.

Lemma NS_app l ext :
  NS l -> NS ext -> (forall t, In t (terminal_ids l) -> ~ In t (starts ext)) -> NS (l ++ ext).
Proof.
  intros Hl He Hx a o b t E Ht.
  apply app_eq_app in E. destruct E as (m & [[E1 E2]|[E1 E2]]).
  - destruct m as [|x m'].
    + cbn [app] in E2. rewrite app_nil_r in E1. subst a. apply (He [] o b t); [symmetry; exact E2 | exact Ht].
    + cbn [app] in E2. inversion E2; subst x b. rewrite starts_app. intros Hin. apply in_app_or in Hin. destruct Hin as [Hin|Hin].
      * exact (Hl a o m' t E1 Ht Hin).
      * apply (Hx t); [|exact Hin]. rewrite E1, terminal_ids_app, tids_cons. apply in_or_app. right. apply in_or_app. left. exact Ht.
  - apply (He m o b t); [exact E2 | exact Ht].
Qed.

Record J (s : st) (pre : list out) : Prop := mkJ {
  j_hok : HOK (hq_of s);
  j_cb : PA s;
  j_fresh : fresh s;
  j_once : ONCE (fst s, pre ++ snd s);
  j_ns : NS (pre ++ snd s)
}.

Lemma TE_shift2 s s' pre : TE s s' -> TE (fst s, pre ++ snd s) (fst s', pre ++ snd s').
Proof.
  intros T t. destruct (T t) as [T1 T2]. cbn [snd]. rewrite !tcount_app. split.
  - intros D. change (dead s t) in D. destruct (T1 D) as [D' E]. split; [exact D' | lia].
  - destruct T2 as [E|[E D]]; [left; lia | right; split; [lia | exact D]].
Qed.

Lemma ONCE_dead s pre t : ONCE (fst s, pre ++ snd s) -> In t (terminal_ids (pre ++ snd s)) -> dead s t.
Proof.
  intros O Hin. destruct (O t) as [O1 O2]. cbn [snd] in O1, O2.
  apply (count_occ_In tid_dec) in Hin. unfold tcount in *. apply O2. lia.
Qed.

Lemma J_quiet s s' pre :
  J s pre -> HOK (hq_of s') -> PA s' -> fresh s' -> TE s s' -> EX Qns s s' -> J s' pre.
Proof.
  intros [_ _ _ O NSs] Hok HC F T (ext & E & Hq). constructor; [exact Hok | exact HC | exact F | |].
  - eapply TE_ONCE; [apply TE_shift2; exact T | exact O].
  - rewrite E, app_assoc. pose proof (Qns_starts _ Hq) as Hs. apply NS_app; [exact NSs | apply NS_nostarts; exact Hs|].
    intros t _. rewrite Hs. intros [].
Qed.

Lemma task_running_out s w id rv s' b :
  task_running s w id rv = Ok (s', b) ->
  snd s' = snd s \/ (exists i ws, snd s' = snd s ++ [OEv (EvStarted id i ws rv)]) /\ present (K s) id.
Proof.
  intros H. apply task_running_split in H.
  destruct (find_task (c_tasks (core_of s)) id) as [t|] eqn:Ef; [|subst; left; reflexivity].
  right. split; [|apply (proj1 (find_task_present (core_of s) id)); exists t; exact Ef].
  destruct H as (s1 & ws & _ & S1 & H2 & _). exists (t_inst t), ws. rewrite <- S1.
  unfold process_task_started in H2. apply bind_ok in H2. destruct H2 as (j & _ & H2).
  destruct (jt_find _ _); [|discriminate]. inversion H2; reflexivity.
Qed.

Lemma task_running_J s w id rv s' b pre : J s pre -> task_running s w id rv = Ok (s', b) -> J s' pre.
Proof.
  intros [Hok HC F O NSs] Hu.
  destruct (task_running_spec _ _ _ _ _ _ (pa_s _ HC) Hu) as [EK EA].
  pose proof (TE_task_running _ _ _ _ _ _ F Hu) as T.
  constructor.
  - eapply task_running_ok; eassumption.
  - eapply PA_frame; eassumption.
  - exact (g_fresh _ _ (G_task_running _ _ _ _ _ _ F Hu) F).
  - eapply TE_ONCE; [apply TE_shift2; exact T | exact O].
  - destruct (task_running_out _ _ _ _ _ _ Hu) as [E|[(i & ws & E) Hp]]; [rewrite E; exact NSs|].
    rewrite E, app_assoc. apply NS_app; [exact NSs | apply NS_single|].
    intros t Ht. cbn. intros [<-|[]].
    apply (active_not_dead s id); [apply (pa_b _ HC); exact Hp | eapply ONCE_dead; eassumption].
Qed.

Lemma apply_one_J s w u s' n pre : J s pre -> apply_one s w u = Ok (s', n) -> J s' pre.
Proof.
  intros HJ Hu. destruct u; cbn [apply_one] in Hu.
  - destruct HJ as [Hok HC F O NSs]. eapply J_quiet; [constructor; eassumption | eapply task_finished_ok; eassumption | eapply task_finished_PA; eassumption
      | exact (g_fresh _ _ (G_task_finished _ _ _ _ _ F Hu) F) | eapply TE_task_finished; eassumption
      | eapply (task_finished_EX Qns Qns_plain); [reflexivity | exact Hu]].
  - apply bind_ok in Hu. destruct Hu as (sx & Hf & Hu). inversion Hu; subst.
    destruct HJ as [Hok HC F O NSs]. eapply J_quiet; [constructor; eassumption | eapply task_failed_ok; eassumption | eapply task_failed_PA; eassumption
      | exact (g_fresh _ _ (G_task_failed _ _ _ _ _ F Hf) F) | eapply TE_task_failed; eassumption
      | eapply (task_failed_EX Qns Qns_plain); [reflexivity | exact Hf]].
  - eapply task_running_J; eassumption.
  - eapply task_running_J; eassumption.
  - destruct HJ as [Hok HC F O NSs]. pose proof (task_reject_same _ _ _ _ _ _ Hu) as Hq. pose proof (task_reject_snd _ _ _ _ _ _ Hu) as Hs.
    eapply J_quiet; [constructor; eassumption | eapply hq_same_ok; eassumption
      | eapply PA_same; [eapply task_reject_K; [exact (pa_s _ HC) | exact Hu] | exact Hq | exact HC]
      | eapply fresh_same; [exact Hq | exact F] | apply TE_core; [exact Hq | exact Hs] | apply EX_snd; exact Hs].
  - apply bind_ok in Hu. destruct Hu as (sx & Hf & Hu). inversion Hu; subst.
    destruct HJ as [Hok HC F O NSs]. pose proof (request_enabled_same _ _ _ _ _ Hf) as Hq. pose proof (request_enabled_snd _ _ _ _ _ Hf) as Hs.
    eapply J_quiet; [constructor; eassumption | eapply hq_same_ok; eassumption
      | eapply PA_same; [eapply request_enabled_K; exact Hf | exact Hq | exact HC]
      | eapply fresh_same; [exact Hq | exact F] | apply TE_core; [exact Hq | exact Hs] | apply EX_snd; exact Hs].
Qed.

Lemma J_same s s' pre : hq_of s' = hq_of s -> K s' = K s -> snd s' = snd s -> J s pre -> J s' pre.
Proof.
  intros Hq Hk Hs [Hok HC F O NSs].
  eapply J_quiet; [constructor; eassumption | rewrite Hq; exact Hok | eapply PA_same; eassumption | eapply fresh_same; eassumption
    | apply TE_core; assumption | apply EX_snd; exact Hs].
Qed.

Lemma on_task_update_J s w us s' pre : J s pre -> on_task_update s w us = Ok s' -> J s' pre.
Proof.
  intros HJ H. refine (on_task_update_rel (fun a b => forall p, J a p -> J b p) _ _ _ s w us s' _ H pre HJ).
  - intros x p Hp. exact Hp.
  - intros a b c A B p Hp. exact (B p (A p Hp)).
  - intros x w0 u y n Hu p Hp. eapply apply_one_J; eassumption.
  - intros x p Hp. eapply J_same; [| | |exact Hp]; reflexivity.
Qed.

Theorem step_NS s pre o s' outs :
  HOK (s_hq s) -> PA (s, []) -> fresh (s, []) -> ONCE (s, pre) -> NS pre ->
  step s o = Ok (s', outs) -> NS (pre ++ outs).
Proof.
  intros Hok HC F O NSp H.
  assert (Hgen : op_cond Qns s o -> NS (pre ++ outs)).
  { intros Hc. pose proof (Qns_starts _ (step_Q Qns Qns_plain _ _ _ _ Qns_direct Hc H)) as Hs.
    apply NS_app; [exact NSp | apply NS_nostarts; exact Hs | intros t _; rewrite Hs; intros []]. }
  destruct o; try (apply Hgen; exact I).
  - apply Hgen. intros id. split; reflexivity.
  - pose proof H as H0. cbn [step] in H.
    destruct (find_proc (s_procs s) w) as [p|] eqn:Hp; [|discriminate]. destruct (p_up p) as [|m rest] eqn:Eu; [discriminate|].
    destruct m as [us|ids].
    + match type of H with on_task_update ?s1 _ _ = _ => assert (J1 : J s1 pre) end.
      { eapply (J_quiet (s, []) _ pre); [constructor; [exact Hok | exact HC | exact F | cbn [fst snd]; rewrite app_nil_r; exact O | cbn [snd]; rewrite app_nil_r; exact NSp]
          | exact Hok | eapply PA_same; [| |exact HC]; reflexivity | eapply fresh_same; [|exact F]; reflexivity
          | apply TE_same; reflexivity | ].
        exists [OUp w (UUpdates us)]. split; [reflexivity | constructor; [reflexivity | constructor]]. }
      exact (j_ns _ _ (on_task_update_J _ _ _ _ _ J1 H)).
    + apply Hgen. intros p0 us rest0 Hp0 Eu0. rewrite Hp in Hp0. inversion Hp0; subst p0. rewrite Eu in Eu0. discriminate.
Qed.

Lemma init_PA reserve maxfill : PA (init_sys reserve maxfill, []).
Proof. constructor; [constructor | intros id cs x [] | intros x []]. Qed.

Theorem run_NS ops : forall reserve maxfill s outs,
  run (init_sys reserve maxfill) ops = Ok (s, outs) -> NS outs.
Proof.
  induction ops as [|o pre IH] using rev_ind; intros reserve maxfill s outs H.
  - cbn in H. inversion H; subst. apply NS_nil.
  - destruct (run_app _ _ _ _ _ H) as (s1 & o1 & o2 & H1 & H2 & ->). cbn [run] in H2.
    apply bind_ok in H2. destruct H2 as ([s2 o3] & Hs & H2). cbn in H2. inversion H2; subst s2 o2. clear H2. rewrite app_nil_r.
    assert (Hok0 : HOK (s_hq (init_sys reserve maxfill))) by (intros j []).
    assert (F0 : fresh (init_sys reserve maxfill, [])) by (intros j []).
    assert (O0 : ONCE (init_sys reserve maxfill, [])) by (intros x; split; [cbn; lia | cbn; discriminate]).
    eapply step_NS; [eapply run_hq_ok; [exact Hok0 | exact H1]
      | eapply PA_outs; eapply run_PA; [exact Hok0 | exact F0 | apply init_PA | exact H1]
      | apply (fresh_outs s1 o1); apply (g_fresh _ _ (G_run _ _ _ _ F0 H1)); exact F0
      | exact (run_ONCE _ _ _ _ _ F0 O0 H1)
      | eapply IH; exact H1
      | exact Hs].
Qed.

(** C01 / C08, silent after terminal. *)
Theorem silent_after_terminal ops reserve maxfill s outs :
  run (init_sys reserve maxfill) ops = Ok (s, outs) ->
  forall pre e post t, outs = pre ++ OEv e :: post -> In t (terminal_ids [OEv e]) ->
  forall e', In (OEv e') post -> ~ In t (ev_names e').
Proof.
  intros H pre e post t E Ht e' He' Hn.
  assert (Ht' : In t (tids_of (OEv e))) by (unfold terminal_ids in Ht; cbn [flat_map] in Ht; rewrite app_nil_r in Ht; exact Ht).
  destruct (ev_names_split _ _ Hn) as [Hs|Hs].
  - apply (run_NS _ _ _ _ _ H pre (OEv e) post t E Ht'). unfold starts. apply in_flat_map. exists (OEv e'). split; assumption.
  - destruct (terminal_event_once _ _ _ _ _ t H) as [Hle _].
    rewrite E in Hle. change (pre ++ OEv e :: post) with (pre ++ [OEv e] ++ post) in Hle.
    rewrite !terminal_ids_app, !count_occ_app in Hle.
    apply (count_occ_In tid_dec) in Ht.
    assert (Hp : In t (terminal_ids post)) by (unfold terminal_ids; apply in_flat_map; exists (OEv e'); split; assumption).
    apply (count_occ_In tid_dec) in Hp. lia.
Qed.

(** The same, as a statement about positions: two events naming the same task, the earlier one
    terminal - impossible. *)
Corollary terminal_is_last ops reserve maxfill s outs a e b e' c t :
  run (init_sys reserve maxfill) ops = Ok (s, outs) ->
  outs = a ++ OEv e :: b ++ OEv e' :: c -> In t (tids_of (OEv e)) -> In t (ev_names e') -> False.
Proof.
  intros H E Ht Hn.
  refine (silent_after_terminal _ _ _ _ _ H a e (b ++ OEv e' :: c) t E _ e' _ Hn);
    [unfold terminal_ids; cbn [flat_map]; rewrite app_nil_r; exact Ht | apply in_or_app; right; left; reflexivity].
Qed.

(** A task is started and finishes ([once_ops], ProofsOnce.v); the job's completion follows the
    terminal event in the stream. *)
Example silent_example : exists s outs pre post, run (init_sys 0 2) once_ops = Ok (s, outs)
  /\ outs = pre ++ OEv (EvFinished (1, 0)) :: post /\ In (OEv (EvStarted (1, 0) 0 [1] 0)) pre /\ post = [OEv (EvCompleted 1)].
Proof.
  eexists. eexists.
  exists [OEv (EvWConn 1); ONewWorker 1; OEv (EvSubmit 1 true 1); OResp (RSubmitOk 1 1 [0]);
          ODown 1 (DNewRq 0 once_rq); ODown 1 (DCompute [mkCT (1, 0) 0 (Some 0) 0 false []]); OLaunch (mkLaunch 1 (1, 0) 0 0 [] true [10000; 0; 0]);
          OUp 1 (UUpdates [URunning (1, 0) 0]); OEv (EvStarted (1, 0) 0 [1] 0); OUp 1 (UUpdates [UFinished (1, 0)])].
  eexists. split; [vm_compute; reflexivity|]. split; [reflexivity|]. split; [cbn; tauto | reflexivity].
Qed.

(** (Histories outside [op_wf] do not exist at the level of [step]: since the repair of finding F26
    a submit whose ids and entries differ in number is refused - [Sys.bad_submit_lengths].) *)
Definition orphan_ops : list op :=
  [OpSubmit None [0; 1] (Some 1) once_rq 0%Z (CMax 3) false None; OpCancel 1; OpOpen None].
Example silent_example_orphan : ~ Forall op_wf orphan_ops /\ exists s outs,
  run (init_sys 0 2) orphan_ops = Ok (s, outs) /\
  outs = [OResp (RSubmitErr 6 0); OResp RCancelInvalid; OEv (EvOpen 1); OResp (ROpen 1)].
Proof.
  split; [intros H; inversion H as [|? ? H1 _]; cbn in H1; lia|].
  eexists. eexists. split; vm_compute; reflexivity.
Qed.

(** The model really emits a start whatever the job layer says: [process_task_started] on a task
    with a recorded outcome succeeds and emits the event - the theorem needs the core/job link. *)
Example started_ignores_job_state :
  let j := mkJob 1 false [(0, JF)] 0 1 0 0 0 true None in
  let s : st := (mkSys (mkCore [] [] [] [] [] false 0 0 2) (mkHq [j] 2) [], []) in
  exists s', process_task_started s (1, 0) 0 [1] 0 = Ok s' /\ snd s' = [OEv (EvStarted (1, 0) 0 [1] 0)].
Proof. eexists. split; vm_compute; reflexivity. Qed.

Print Assumptions silent_after_terminal.
