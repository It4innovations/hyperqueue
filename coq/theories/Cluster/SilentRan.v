(** C01, "finished means it ran": every [EvFinished x] in the event stream of a history of the
    system model is preceded by a SUCCESSFUL LAUNCH of [x] on the worker whose report the server
    is processing when it emits the event.

    Two halves:
    - server side (this file, no hypothesis on the history): [OEv (EvFinished x)] is emitted ONLY
      inside [step s (OpDUp w)] while the head message of worker [w]'s up channel is an update
      batch containing [UFinished x] ([step_report_src], from the shape pass of SilentBase.v);
      in the stream: the last [OUp] output before the event is [OUp w (UUpdates us)] with
      [In (UFinished x) us] ([finished_only_on_report]).  The same holds for [EvFailed x k] with a
      kind the server does not generate itself (k <> FNeverRestart, FCrashLimit) and [UFailed x k].
    - worker side ([ExecU19.reported_means_ran_partial], premises [op_wf], [ops_ok]): a connected
      process with [UFinished x] / [UFailed x FTask] / [UFailed x FTimeLimit] in a pending message
      launched [x] successfully before.
    Together: [finished_means_ran], [failed_means_ran]. *)
From HQ Require Import Base.Prelude Cluster.Types Cluster.Core Cluster.Reactor Cluster.Worker Cluster.Server Cluster.Sys Cluster.Monitors Cluster.ProofsJob Cluster.ProofsOnce Cluster.RejHyp Cluster.BijFinal Cluster.InvDStep Cluster.NoPanicL0 Cluster.NoPanicU0 Cluster.ExecU19 Cluster.SilentBase.
From HQ Require Import Cluster.ModelFacts.
From Coq Require Import ZArith Lia.
Local Open Scope N_scope.

(** The per-task event an update of a worker message makes the server emit (if it accepts it). *)
Definition cause (u : wupdate) : option event :=
  match u with
  | UFinished t => Some (EvFinished t)
  | UFailed t k => Some (EvFailed t k)
  | _ => None
  end.

(** Events that only a worker's report can cause. *)
Definition reported (e : event) : Prop :=
  match e with
  | EvFinished _ => True
  | EvFailed _ k => k <> FNeverRestart /\ k <> FCrashLimit
  | _ => False
  end.

Definition not_up (o : out) : Prop := forall w m, o <> OUp w m.

Lemma not_up_plain o : plain o -> not_up o.
Proof. intros Hp w m E. subst o. exact Hp. Qed.

Lemma step_report_op s o s' outs e0 :
  reported e0 -> step s o = Ok (s', outs) -> In (OEv e0) outs ->
  exists w p us rest u, o = OpDUp w /\ find_proc (s_procs s) w = Some p /\ p_up p = UUpdates us :: rest /\
    In u us /\ cause u = Some e0.
Proof.
  intros Hr H Hin.
  set (P := exists w p us rest u, o = OpDUp w /\ find_proc (s_procs s) w = Some p /\ p_up p = UUpdates us :: rest /\
              In u us /\ cause u = Some e0).
  set (Q := fun x : out => x = OEv e0 -> P).
  assert (Qp : forall x, plain x -> Q x).
  { intros x Hp E. subst x. exfalso. destruct e0; cbn in Hp, Hr; try contradiction. }
  assert (Qd : forall x, direct x -> Q x) by (intros x Hd E; subst x; destruct Hd).
  assert (Hc : op_cond Q s o).
  { destruct o; cbn [op_cond]; try exact I.
    - intros id. split; intros E; inversion E; subst e0; cbn in Hr; destruct Hr as [A B]; congruence.
    - intros p us rest Hp Eu. apply Forall_forall. intros u Hu.
      assert (HP : forall e, cause u = Some e -> OEv e = OEv e0 -> P).
      { intros e Hc E. inversion E; subst e. exists w, p, us, rest, u. auto. }
      destruct u; cbn [Qu]; try exact I.
      + exact (HP _ eq_refl).
      + exact (HP _ eq_refl).
      + intros i ws E. inversion E; subst e0. destruct Hr.
      + intros i ws E. inversion E; subst e0. destruct Hr. }
  pose proof (step_Q Q Qp _ _ _ _ Qd Hc H) as HF. rewrite Forall_forall in HF. exact (HF _ Hin eq_refl).
Qed.

(** Where the event sits in the outputs of the operation: after the [OUp] of the message, with no
    other [OUp] in between. *)
Theorem step_report_src s o s' outs e0 a b :
  reported e0 -> step s o = Ok (s', outs) -> outs = a ++ OEv e0 :: b ->
  exists w p us rest u a', o = OpDUp w /\ find_proc (s_procs s) w = Some p /\ p_up p = UUpdates us :: rest /\
    In u us /\ cause u = Some e0 /\ a = OUp w (UUpdates us) :: a' /\ Forall not_up a'.
Proof.
  intros Hr H E.
  assert (Hin : In (OEv e0) outs) by (rewrite E; apply in_or_app; right; left; reflexivity).
  destruct (step_report_op _ _ _ _ _ Hr H Hin) as (w & p & us & rest & u & -> & Hp & Eu & Hu & Hc).
  cbn [step] in H. rewrite Hp, Eu in H.
  assert (Hq : Forall (Qu not_up) us).
  { apply Forall_forall. intros u0 _. destruct u0; cbn [Qu]; try exact I; intros; intros w0 m0 E0; discriminate. }
  destruct (on_task_update_EX not_up not_up_plain _ _ _ _ Hq H) as (ext & E1 & F1). cbn [snd] in E1.
  exists w, p, us, rest, u. rewrite E1 in E. destruct a as [|x a']; [cbn in E; inversion E|].
  cbn [app] in E. inversion E; subst x. exists a'. repeat split; try assumption.
  match goal with X : ext = a' ++ _ |- _ => rewrite X in F1 end.
  apply Forall_app in F1. exact (proj1 F1).
Qed.

Lemma run_split ops : forall s s' outs pre x post,
  run s ops = Ok (s', outs) -> outs = pre ++ x :: post ->
  exists ops1 o ops2 s1 o1 s2 o2 a b,
    ops = ops1 ++ o :: ops2 /\ run s ops1 = Ok (s1, o1) /\ step s1 o = Ok (s2, o2) /\
    o2 = a ++ x :: b /\ pre = o1 ++ a.
Proof.
  induction ops as [|o r IH]; cbn [run]; intros s s' outs pre x post H E.
  - inversion H; subst s' outs. destruct pre; discriminate.
  - apply bind_ok in H. destruct H as ([s1 o1] & H1 & H). apply bind_ok in H. destruct H as ([s2 o2] & H2 & H). injection H as Hs2 Ho. subst s2. rewrite <- Ho in E. clear Ho.
    apply app_eq_app in E. destruct E as (m & [[E1 E2]|[E1 E2]]).
    + destruct m as [|y m'].
      * cbn [app] in E2. rewrite app_nil_r in E1. subst o1.
        destruct (IH _ _ _ [] x post H2 (eq_sym E2)) as (ops1 & o' & ops2 & sa & oa & sb & ob & a & b & Eo & Ha & Hb & Eb & Ep).
        exists (o :: ops1), o', ops2, sa, (pre ++ oa), sb, ob, a, b. repeat split; try assumption.
        -- rewrite Eo. reflexivity.
        -- cbn [run]. rewrite H1. cbn [bind]. rewrite Ha. reflexivity.
        -- rewrite <- app_assoc, <- Ep, app_nil_r. reflexivity.
      * cbn [app] in E2. inversion E2; subst y post.
        exists [], o, r, s, [], s1, o1, pre, m'. repeat split; try assumption; reflexivity.
    + destruct (IH _ _ _ m x post H2 E2) as (ops1 & o' & ops2 & sa & oa & sb & ob & a & b & Eo & Ha & Hb & Eb & Ep).
      exists (o :: ops1), o', ops2, sa, (o1 ++ oa), sb, ob, a, b. repeat split; try assumption.
      * rewrite Eo. reflexivity.
      * cbn [run]. rewrite H1. cbn [bind]. rewrite Ha. reflexivity.
      * rewrite E1, Ep, app_assoc. reflexivity.
Qed.

Lemma ops_ok_app a : forall s b, ops_ok s (a ++ b) = true -> ops_ok s a = true.
Proof.
  induction a as [|o r IH]; cbn [app ops_ok]; intros s b H; [reflexivity|].
  apply andb_true_iff in H. destruct H as [H1 H2]. rewrite H1. cbn [andb].
  destruct (step s o) as [[s1 o1]| |]; [eapply IH; exact H2 | reflexivity | reflexivity].
Qed.

Theorem only_on_report ops reserve maxfill s outs pre e0 post :
  run (init_sys reserve maxfill) ops = Ok (s, outs) ->
  outs = pre ++ OEv e0 :: post -> reported e0 ->
  exists c w us d u, pre = c ++ OUp w (UUpdates us) :: d /\ In u us /\ cause u = Some e0 /\ Forall not_up d.
Proof.
  intros H E Hr.
  destruct (run_split _ _ _ _ _ _ _ H E) as (ops1 & o & ops2 & s1 & o1 & s2 & o2 & a & b & _ & _ & Hs & Eb & Ep).
  destruct (step_report_src _ _ _ _ _ _ _ Hr Hs Eb) as (w & p & us & rest & u & a' & _ & _ & _ & Hu & Hc & Ea & Fa).
  exists o1, w, us, a', u. rewrite Ep, Ea. auto.
Qed.

Corollary finished_only_on_report ops reserve maxfill s outs pre x post :
  run (init_sys reserve maxfill) ops = Ok (s, outs) ->
  outs = pre ++ OEv (EvFinished x) :: post ->
  exists c w us d, pre = c ++ OUp w (UUpdates us) :: d /\ In (UFinished x) us /\ Forall not_up d.
Proof.
  intros H E. destruct (only_on_report _ _ _ _ _ _ _ _ H E I) as (c & w & us & d & u & Ep & Hu & Hc & Fd).
  exists c, w, us, d. destruct u; try discriminate. inversion Hc; subst. auto.
Qed.

Corollary failed_only_on_report ops reserve maxfill s outs pre x k post :
  run (init_sys reserve maxfill) ops = Ok (s, outs) ->
  outs = pre ++ OEv (EvFailed x k) :: post -> k <> FNeverRestart -> k <> FCrashLimit ->
  exists c w us d, pre = c ++ OUp w (UUpdates us) :: d /\ In (UFailed x k) us /\ Forall not_up d.
Proof.
  intros H E K1 K2. destruct (only_on_report _ _ _ _ _ _ _ _ H E (conj K1 K2)) as (c & w & us & d & u & Ep & Hu & Hc & Fd).
  exists c, w, us, d. destruct u; try discriminate. inversion Hc; subst. auto.
Qed.

Theorem report_means_ran ops reserve maxfill s outs pre e0 x post :
  Forall op_wf ops -> ops_ok (init_sys reserve maxfill) ops = true ->
  run (init_sys reserve maxfill) ops = Ok (s, outs) ->
  outs = pre ++ OEv e0 :: post ->
  e0 = EvFinished x \/ e0 = EvFailed x FTask \/ e0 = EvFailed x FTimeLimit ->
  exists a l b us d u,
    pre = a ++ OLaunch l :: b ++ OUp (l_w l) (UUpdates us) :: d /\
    l_t l = x /\ l_ok l = true /\ In u us /\ cause u = Some e0 /\ Forall not_up d.
Proof.
  intros Hwf Hok H E He.
  assert (Hr : reported e0) by (destruct He as [-> | [-> | ->]]; cbn; [exact I | split; discriminate | split; discriminate]).
  destruct (run_split _ _ _ _ _ _ _ H E) as (ops1 & o & ops2 & s1 & o1 & s2 & o2 & a & b & Eo & H1 & Hs & Eb & Ep).
  destruct (step_report_src _ _ _ _ _ _ _ Hr Hs Eb) as (w & p & us & rest & u & a' & _ & Hp & Eu & Hu & Hc & Ea & Fa).
  subst ops. apply Forall_app in Hwf. destruct Hwf as [Hwf1 _]. apply ops_ok_app in Hok.
  destruct (find_proc_some _ _ _ Hp) as [Hin Hid].
  assert (Hrep : In (UUpdates us) (p_up p) /\ (In (UFinished x) us \/ In (UFailed x FTask) us \/ In (UFailed x FTimeLimit) us)).
  { split; [rewrite Eu; left; reflexivity|].
    destruct He as [-> | [-> | ->]]; destruct u; try discriminate; inversion Hc; subst; auto. }
  destruct (reported_means_ran_partial _ _ _ _ _ Hwf1 Hok H1 p x us Hin (or_intror Hrep)) as (a0 & l & b0 & E1 & L1 & L2 & L3).
  exists a0, l, (b0), us, a', u. rewrite Ep, Ea, E1, L1, Hid, <- app_assoc. cbn [app]. auto 10.
Qed.

(** C01: every [EvFinished x] is preceded by a successful launch of [x] by the worker whose
    report (the last message consumed before the event, containing [UFinished x]) the server is
    processing. *)
Theorem finished_means_ran ops reserve maxfill s outs pre x post :
  Forall op_wf ops -> ops_ok (init_sys reserve maxfill) ops = true ->
  run (init_sys reserve maxfill) ops = Ok (s, outs) ->
  outs = pre ++ OEv (EvFinished x) :: post ->
  exists a l b us d,
    pre = a ++ OLaunch l :: b ++ OUp (l_w l) (UUpdates us) :: d /\
    l_t l = x /\ l_ok l = true /\ In (UFinished x) us /\ Forall not_up d.
Proof.
  intros Hwf Hok H E.
  destruct (report_means_ran _ _ _ _ _ _ _ x _ Hwf Hok H E (or_introl eq_refl)) as (a & l & b & us & d & u & Ep & L2 & L3 & Hu & Hc & Fd).
  exists a, l, b, us, d. destruct u; try discriminate. inversion Hc; subst. auto 10.
Qed.

(** The same for a failure reported by a worker with kind FTask / FTimeLimit. *)
Theorem failed_means_ran ops reserve maxfill s outs pre x k post :
  Forall op_wf ops -> ops_ok (init_sys reserve maxfill) ops = true ->
  run (init_sys reserve maxfill) ops = Ok (s, outs) ->
  outs = pre ++ OEv (EvFailed x k) :: post -> k = FTask \/ k = FTimeLimit ->
  exists a l b us d,
    pre = a ++ OLaunch l :: b ++ OUp (l_w l) (UUpdates us) :: d /\
    l_t l = x /\ l_ok l = true /\ In (UFailed x k) us /\ Forall not_up d.
Proof.
  intros Hwf Hok H E Hk.
  assert (He : EvFailed x k = EvFinished x \/ EvFailed x k = EvFailed x FTask \/ EvFailed x k = EvFailed x FTimeLimit)
    by (destruct Hk as [-> | ->]; auto).
  destruct (report_means_ran _ _ _ _ _ _ _ x _ Hwf Hok H E He) as (a & l & b & us & d & u & Ep & L2 & L3 & Hu & Hc & Fd).
  exists a, l, b, us, d. destruct u; try discriminate. inversion Hc; subst. auto 10.
Qed.

(** The simple form of the task statement. *)
Corollary finished_means_launched ops reserve maxfill s outs pre x post :
  Forall op_wf ops -> ops_ok (init_sys reserve maxfill) ops = true ->
  run (init_sys reserve maxfill) ops = Ok (s, outs) ->
  outs = pre ++ OEv (EvFinished x) :: post ->
  exists a l b, pre = a ++ OLaunch l :: b /\ l_t l = x /\ l_ok l = true.
Proof.
  intros Hwf Hok H E. destruct (finished_means_ran _ _ _ _ _ _ _ _ Hwf Hok H E) as (a & l & b & us & d & Ep & L2 & L3 & _).
  exists a, l, (b ++ OUp (l_w l) (UUpdates us) :: d). auto.
Qed.

Example ran_example : Forall op_wf once_ops /\ ops_ok (init_sys 0 2) once_ops = true /\
  exists s outs pre post, run (init_sys 0 2) once_ops = Ok (s, outs) /\ outs = pre ++ OEv (EvFinished (1, 0)) :: post /\
    exists a b d, pre = a ++ OLaunch (mkLaunch 1 (1, 0) 0 0 [] true [10000; 0; 0]) :: b ++ OUp 1 (UUpdates [UFinished (1, 0)]) :: d.
Proof.
  split; [repeat constructor|]. split; [vm_compute; reflexivity|]. eexists. eexists.
  exists [OEv (EvWConn 1); ONewWorker 1; OEv (EvSubmit 1 true 1); OResp (RSubmitOk 1 1 [0]);
          ODown 1 (DNewRq 0 once_rq); ODown 1 (DCompute [mkCT (1, 0) 0 (Some 0) 0 false []]); OLaunch (mkLaunch 1 (1, 0) 0 0 [] true [10000; 0; 0]);
          OUp 1 (UUpdates [URunning (1, 0) 0]); OEv (EvStarted (1, 0) 0 [1] 0); OUp 1 (UUpdates [UFinished (1, 0)])].
  eexists. split; [vm_compute; reflexivity|]. split; [reflexivity|].
  exists [OEv (EvWConn 1); ONewWorker 1; OEv (EvSubmit 1 true 1); OResp (RSubmitOk 1 1 [0]);
          ODown 1 (DNewRq 0 once_rq); ODown 1 (DCompute [mkCT (1, 0) 0 (Some 0) 0 false []])],
         [OUp 1 (UUpdates [URunning (1, 0) 0]); OEv (EvStarted (1, 0) 0 [1] 0)], []. reflexivity.
Qed.

(** The kinds the server generates itself do NOT presuppose a report (nor a launch): see
    [StartFin.failed_needs_start_refuted_crash_mn] (a crash-limit failure of a task that was never
    launched); and a launch FAILURE is reported by the worker with kind FLaunch
    ([StartFin.failed_needs_start_refuted_launch]) - covered by [failed_only_on_report], not by
    [failed_means_ran] (the launch of that task has [l_ok = false]). *)

Print Assumptions finished_only_on_report.
Print Assumptions finished_means_ran.
Print Assumptions failed_means_ran.
