(** Stage 3, totality of the server's handling of worker messages, part 1: the invariant bundle
    ([NoPanicL4.LI]) along the updates of one message; [request_enabled], [on_retract_response],
    [task_running], [task_reject] return [Ok].

    [task_running] for a task in state Retracting needs the invariant [RSN] (NoPanicU23.v: the worker
    named by a Retracting state is connected and in single-node mode), which holds in reachable
    states once the scheduler's answers satisfy [sched_retract_ok] (the repair of finding F28,
    NoPanicU26.v); without it site 102 is reachable (NoPanicU21.v). *)
From HQ Require Import Base.Prelude Cluster.Types Cluster.Core Cluster.Reactor Cluster.Worker Cluster.Server Cluster.Sys Cluster.Monitors Cluster.RejHyp Cluster.ProofsJob Cluster.ProofsMore Cluster.ProofsTerminal Cluster.ProofsStep Cluster.ProofsFinal Cluster.BijBase Cluster.BijCore Cluster.BijHq Cluster.BijSt Cluster.BijReact Cluster.BijFinal Cluster.InvWBase Cluster.InvWView Cluster.InvWCore Cluster.InvWReact Cluster.InvWServer Cluster.InvWFinal Cluster.InvQBase Cluster.InvQTake Cluster.InvQInv Cluster.InvQReact Cluster.InvQReact2 Cluster.InvDBase Cluster.InvDSpec Cluster.InvDRem Cluster.InvDReact Cluster.InvBundle Cluster.InvProcsDef Cluster.NoPanicC1 Cluster.NoPanicC2 Cluster.NoPanicC3 Cluster.InvWX1 Cluster.InvWX3 Cluster.NoPanicL0 Cluster.NoPanicL1 Cluster.NoPanicL4 Cluster.NoPanicU0 Cluster.NoPanicU1 Cluster.NoPanicU6 Cluster.NoPanicU8 Cluster.NoPanicU9 Cluster.NoPanicU10 Cluster.NoPanicU11 Cluster.NoPanicU12 Cluster.NoPanicU13 Cluster.NoPanicU23.
From HQ Require Import Cluster.ModelFacts.
From Coq Require Import ZArith Lia Sorting.Sorted.
Local Open Scope N_scope.

Arguments N.add : simpl never.
Arguments N.sub : simpl never.

Lemma LI_apply_one s w u s' b : LI s -> reject_fresh s w u = true -> apply_one s w u = Ok (s', b) -> LI s'.
Proof.
  intros [Hok HC HW V HG HJ HP] Hf H.
  assert (H1 : apply_updates s w [u] false = Ok (s', false || b)).
  { rewrite apply_updates_cons, H. reflexivity. }
  assert (Hrf : rejects_fresh s w [u] = true) by (cbn [rejects_fresh]; rewrite Hf, H; reflexivity).
  constructor.
  - eapply apply_updates_ok; eassumption.
  - eapply apply_updates_CB; eassumption.
  - eapply apply_updates_WI; eassumption.
  - eapply apply_updates_QI; eassumption.
  - exact (proj1 (apply_updates_RL _ _ _ _ _ _ HG H1)).
  - eapply J_R; [exact HJ | eapply InvWX1.apply_updates_R; exact H1].
  - eapply R_PI; [eapply NoPanicL0.apply_updates_R; exact H1 | exact HP].
Qed.

Lemma LI_of_INV s o : INV s -> PW s -> J (s_core s) -> LI (s, o).
Proof.
  intros HI HPW HJ. constructor.
  - exact (inv_hok _ HI).
  - eapply CB_outs. exact (inv_cb _ HI).
  - exact (inv_w _ HI).
  - exact (inv_q _ HI).
  - exact (inv_d _ HI).
  - exact HJ.
  - split; [exact (proj1 (inv_w _ HI)) | exact HPW].
Qed.

Lemma LI_worker s w : LI s -> find_proc (s_procs (fst s)) w <> None -> exists wk, find_worker (c_workers (core_of s)) w = Some wk.
Proof.
  intros HL Hp. destruct (li_pi _ HL) as [_ E]. unfold pids, wids in E.
  apply (same_ids_find _ _ w E) in Hp. destruct (find_worker (c_workers (core_of s)) w) as [wk|]; [eauto | congruence].
Qed.

Lemma request_enabled_tot s w rq rv : LI s -> find_proc (s_procs (fst s)) w <> None -> exists s', request_enabled s w rq rv = Ok s'.
Proof.
  intros HL Hp. destruct (LI_worker s w HL Hp) as (wk & Hw). unfold request_enabled. rewrite (get_worker_ok _ _ _ Hw). cbn [bind]. eauto.
Qed.

Definition GP (c : core) (acc : list (wid * list (tid * N))) : Prop :=
  forall tg l, In (tg, l) acc -> find_worker (c_workers c) tg <> None /\ forall ir, In ir l -> find_task (c_tasks c) (fst ir) <> None.

Lemma rrs_GP w ids : forall c acc c' acc', WI c -> GP c acc -> retract_response_states c w ids acc = (c', acc') ->
  GP c' acc' /\ c_workers c' = c_workers c.
Proof.
  induction ids as [|id r IH]; cbn [retract_response_states]; intros c acc c' acc' HW HG H; [inversion H; subst; auto|].
  destruct (find_task (c_tasks c) id) as [t|] eqn:Ef; [|eapply IH; eassumption].
  destruct (t_state t) as [n|w1 rv1|w1|w1|w1 rv1|ws|] eqn:Est; try (eapply IH; eassumption).
  destruct (N.eqb w w1) eqn:Ew; [|eapply IH; eassumption].
  destruct (find_task_some _ _ _ Ef) as [_ Eid].
  (* one step keeps WI *)
  assert (Hone : forall c1 acc1, retract_response_states c w [id] acc = (c1, acc1) -> WI c1) by (intros c1 acc1 H1; eapply retract_response_states_WI; [exact HW | exact H1]).
  cbn [retract_response_states] in Hone. rewrite Ef, Est, Ew in Hone.
  assert (Hkeep : forall (c1 : core) (t' : task), t_id t' = id -> c_tasks c1 = set_task (c_tasks c) t' ->
            forall x, find_task (c_tasks c) x <> None -> find_task (c_tasks c1) x <> None).
  { intros c1 t' Ei Et x Hx. rewrite Et, find_set_task, Ei. destruct (tid_eqb x id); [discriminate | exact Hx]. }
  destruct (find_redirect (c_redirects c) id) as [[tg rv]|] eqn:Er.
  - set (c1 := upd_task (with_redirects c (del_redirect (c_redirects c) id)) (with_state t (Assigned tg rv))) in *.
    destruct (IH c1 (group_add tg (id, rv) acc) c' acc' (Hone _ _ eq_refl)) as [G2 E2]; [|exact H|split; [exact G2 | rewrite E2; reflexivity]].
    intros tg0 l Hin. destruct (group_add_in _ _ _ _ _ Hin) as [Hin0|(-> & l0 & -> & Hl0)].
    + destruct (HG _ _ Hin0) as [A B]. split; [exact A|]. intros ir Hir. apply (Hkeep c1 (with_state t (Assigned tg rv))); [cbn; exact Eid | reflexivity | apply B; exact Hir].
    + destruct (WIX_R _ _ id tg rv HW Er) as (wk & a & p & f & Hwk & _). split; [cbn [c1 upd_task with_tasks with_redirects c_workers]; congruence|].
      intros ir Hir. apply in_app_iff in Hir. destruct Hir as [Hir|[<-|[]]].
      * destruct Hl0 as [->|Hl0]; [destruct Hir|]. destruct (HG _ _ Hl0) as [_ B].
        apply (Hkeep c1 (with_state t (Assigned tg rv))); [cbn; exact Eid | reflexivity | apply B; exact Hir].
      * cbn [fst]. cbn [c1 upd_task with_tasks c_tasks with_redirects]. rewrite find_set_task. cbn [with_state t_id]. rewrite Eid, tid_eqb_refl. discriminate.
  - set (c1 := upd_task c (with_state t (Waiting 0))) in *.
    destruct (IH c1 acc c' acc' (Hone _ _ eq_refl)) as [G2 E2]; [|exact H|split; [exact G2 | rewrite E2; reflexivity]].
    intros tg0 l Hin. destruct (HG _ _ Hin) as [A B]. split; [exact A|]. intros ir Hir. apply (Hkeep c1 (with_state t (Waiting 0))); [cbn; exact Eid | reflexivity | apply B; exact Hir].
Qed.

Lemma send_redirected_tot gs : forall s, PWc s -> GP (core_of s) gs -> exists s', send_redirected s gs = Ok s'.
Proof.
  induction gs as [|[tg ts] r IH]; intros s HPW HG; [eexists; reflexivity|]. cbn [send_redirected].
  destruct (HG tg ts (or_introl eq_refl)) as [Hw Ht]. destruct (ctasks_of_ok _ _ Ht) as (cts & ->). cbn [bind].
  destruct (send_worker_tot s tg (DCompute cts) (HPW tg Hw)) as (s1 & H1 & _). rewrite H1. cbn [bind].
  pose proof (send_worker_core _ _ _ _ H1) as Ec.
  apply IH.
  - intros w0 Hw0. rewrite Ec in Hw0. specialize (HPW w0 Hw0). unfold has_proc in *. unfold send_worker in H1.
    destruct (find_proc (s_procs (fst s)) tg) as [p|] eqn:Ep; [|discriminate]. inversion H1; subst s1. cbn [fst with_procs s_procs].
    rewrite find_set_proc. destruct (N.eqb w0 (p_id (push_down p (DCompute cts)))); [discriminate | exact HPW].
  - rewrite Ec. intros tg0 l Hin. apply HG. right. exact Hin.
Qed.

Lemma on_retract_response_tot s w ids : LI s -> exists s', on_retract_response s w ids = Ok s'.
Proof.
  intros HL. unfold on_retract_response. destruct (retract_response_states (core_of s) w ids []) as [c' groups] eqn:Er.
  destruct (rrs_GP w ids _ _ _ _ (li_wi _ HL) (fun tg l (H : In (tg, l) []) => match H with end) Er) as [G E].
  destruct (send_redirected_tot groups (st_core s c')) as (s2 & ->).
  - intros w0 Hw0. cbn [core_of st_core with_core s_core fst] in Hw0. rewrite E in Hw0. exact (PI_PWc _ (li_pi _ HL) w0 Hw0).
  - exact G.
  - cbn [bind]. destruct (retract_wakes _ _ _ _); eexists; reflexivity.
Qed.

Lemma LI_active s id t : LI s -> find_task (c_tasks (core_of s)) id = Some t -> active s id.
Proof. intros HL Hf. apply (cb_b _ (li_cb _ HL)). apply find_task_present. eauto. Qed.

Lemma process_task_started_tot s id inst ws rv : active s id -> exists s', process_task_started s id inst ws rv = Ok s'.
Proof.
  intros Ha. destruct (active_find_job _ _ Ha) as (j & Hj & Hjt). unfold process_task_started, hq_get_job. unfold hq_jobs in Hj. rewrite Hj. cbn [bind].
  destruct (jt_find (j_tasks j) (snd id)) as [v|]; [eauto | destruct Hjt; discriminate].
Qed.

Lemma LI_get_rq s id t : LI s -> find_task (c_tasks (core_of s)) id = Some t -> exists rq, get_rq (c_rqs (core_of s)) (t_rq t) = Ok rq.
Proof.
  intros HL Hf. apply get_rq_tot. pose proof (li_qi _ HL) as V. rewrite <- (qv_len _ _ _ _ _ _ V). exact (qv_rq _ _ _ _ _ _ V _ _ Hf).
Qed.

Lemma not_inA c w wk a p f id t : WI c -> find_worker (c_workers c) w = Some wk -> w_assign wk = Sn a p f ->
  find_task (c_tasks c) id = Some t ->
  (forall rv, t_state t <> Assigned w rv) -> (forall rv, t_state t <> Running w rv) ->
  (forall w1 v, t_state t = Retracting w1 -> find_redirect (c_redirects c) id <> Some (w, v)) ->
  tid_mem id a = false.
Proof.
  intros HW Hw Ea Hf H1 H2 H3. destruct (tid_mem id a) eqn:E; [|reflexivity]. exfalso.
  destruct (WI_inA_task _ _ _ _ _ _ id HW Hw Ea E) as (t0 & Hf0 & [(rv & X)|[(rv & X)|(w1 & v & X & Y)]]); rewrite Hf in Hf0; inversion Hf0; subst t0.
  - exact (H1 _ X). - exact (H2 _ X). - exact (H3 _ _ X Y).
Qed.

Lemma task_running_tot s w id rv : LI s -> RSN (core_of s) ->
  (forall t, find_task (c_tasks (core_of s)) id = Some t ->
     t_state t = Assigned w rv \/ t_state t = Prefilled w \/ t_state t = Retracting w \/ exists ws, t_state t = RunningMN (w :: ws)) ->
  exists r, task_running s w id rv = Ok r.
Proof.
  intros HL HR Hst. unfold task_running. cbv zeta. set (c := core_of s) in *.
  destruct (find_task (c_tasks c) id) as [t|] eqn:Ef; [|eauto].
  destruct (LI_get_rq s id t HL Ef) as (rq & Hrq). fold c in Hrq. rewrite Hrq. cbn [bind].
  pose proof (LI_active s id t HL Ef) as Hact. pose proof (li_wi _ HL) as HW. pose proof (li_qi _ HL) as V. fold c in HW, V.
  destruct (find_task_some _ _ _ Ef) as [_ Eid].
  assert (Hstart : forall s1 ws, hq_of s1 = hq_of s -> exists r, (do s2 <- process_task_started s1 id (t_inst t) ws rv; Ok (s2, false)) = Ok r).
  { intros s1 ws Eh. destruct (process_task_started_tot s1 id (t_inst t) ws rv) as (s2 & ->); [|cbn [bind]; eauto].
    apply (active_same s s1); [|exact Hact]. intros j. unfold jt. rewrite Eh. reflexivity. }
  pose proof (Hst t eq_refl) as Hcase.
  destruct (t_state t) as [n0|w1 rv1|w1|w1|w1 rv1|ws|] eqn:Est;
    try (exfalso; destruct Hcase as [X|[X|[X|(ws0 & X)]]]; discriminate X).
  - (* Assigned *) assert (E : w1 = w /\ rv1 = rv) by (destruct Hcase as [X|[X|[X|(ws0 & X)]]]; inversion X; auto). destruct E as [-> ->].
    rewrite !N.eqb_refl. cbn [negb bind]. apply Hstart. reflexivity.
  - (* Prefilled *) assert (E : w1 = w) by (destruct Hcase as [X|[X|[X|(ws0 & X)]]]; inversion X; auto). subst w1.
    rewrite N.eqb_refl. cbn [negb].
    destruct (WIX_P _ _ id t w HW eq_refl Ef) as (wk & a & p & f & Hw & Ea & Hm); [rewrite Est; reflexivity|].
    change (c_workers (upd_task c (with_state t (Running w rv)))) with (c_workers c). rewrite (get_worker_ok _ _ _ Hw). cbn [bind].
    assert (Hna : tid_mem id a = false).
    { eapply (not_inA c w wk a p f id t HW Hw Ea Ef); intros; try intro; congruence. }
    unfold task_from_prefilled_to_started. rewrite Ea, Hm, Hna. cbn [negb bind].
    destruct (QV_queue _ _ _ _ _ _ _ _ V Ef) as (q & Hq & Hwf & Hp).
    change (c_queues (upd_task c (with_state t (Running w rv)))) with (c_queues c). rewrite (proj2 (nth_queue_ok _ _ _) Hq). cbn [bind].
    unfold exp_place, none in Hp. rewrite Est in Hp. cbn [nat_place] in Hp.
    destruct (q_remove_tot q id (t_prio t) Hwf (or_intror (placed_prefill_at _ _ _ Hp))) as (q' & ->). cbn [bind]. apply Hstart. reflexivity.
  - (* Retracting *) assert (E : w1 = w) by (destruct Hcase as [X|[X|[X|(ws0 & X)]]]; inversion X; auto). subst w1.
    rewrite N.eqb_refl. cbn [negb].
    destruct (HR t w (InvWX1.find_in _ _ _ Ef) Est) as (wk & Hw & a & p & f & Ea).
    change (core_of (ask_scheduling s)) with (with_flag c true).
    assert (Htr : exists c1 wk1 a1 p1 f1, try_remove_redirection (with_flag c true) t = Ok c1 /\
                    find_worker (c_workers c1) w = Some wk1 /\ w_assign wk1 = Sn a1 p1 f1 /\ tid_mem id a1 = false).
    { unfold try_remove_redirection. rewrite Eid. cbn [with_flag c_redirects c_workers c_rqs c_queues].
      destruct (find_redirect (c_redirects c) id) as [[tg rvt]|] eqn:Er.
      - destruct (WIX_R _ _ id tg rvt HW Er) as (wkt & at' & pt & ft & Hwt & Eat & Hmt).
        rewrite (get_worker_ok _ _ _ Hwt). cbn [bind]. destruct (get_rq_tot (c_rqs c) (t_rq t)) as (rq1 & ->).
        { rewrite <- (qv_len _ _ _ _ _ _ V). exact (qv_rq _ _ _ _ _ _ V _ _ Ef). }
        cbn [bind]. destruct (remove_sn_task_tot wkt id (rq_res rq1) at' pt ft Eat Hmt) as (wk' & Hrm & Eid').
        rewrite Hrm. cbn [bind]. destruct (remove_sn_task_spec _ _ _ _ Hrm) as (_ & a0 & p0 & f0 & E0 & E0').
        rewrite Eat in E0. inversion E0; subst a0 p0 f0.
        exists (upd_worker (with_redirects (with_flag c true) (del_redirect (c_redirects c) id)) wk'). cbn [upd_worker with_workers with_redirects with_flag c_workers]. rewrite find_set_worker, Eid'.
        destruct (find_task_some _ _ _ Ef) as [_ _]. destruct (find_worker_some _ _ _ Hwt) as [_ Ewt]. rewrite Ewt.
        destruct (N.eqb w tg) eqn:E.
        + apply N.eqb_eq in E. subst tg. exists wk', (tid_remove id at'), pt, (res_add_cap ft (rq_res rq1) (w_res wkt)). split; [reflexivity|]. split; [reflexivity|]. split; [exact E0'|].
          apply tid_mem_remove_same. rewrite <- E in Hwt. destruct HW as (_ & _ & Hv & _). exact (proj1 (wi_sets _ _ _ Hv w wkt at' pt ft Hwt Eat)).
        + exists wk, a, p, f. split; [reflexivity|]. split; [exact Hw|]. split; [exact Ea|].
          eapply (not_inA c w wk a p f id t HW Hw Ea Ef); try (intros; try intro; congruence).
          intros w1 v _ X. rewrite Er in X. inversion X; subst. rewrite N.eqb_refl in E. discriminate.
      - destruct (QV_queue _ _ _ _ _ _ _ _ V Ef) as (q & Hq & Hwf & Hp).
        rewrite (proj2 (nth_queue_ok _ _ _) Hq). cbn [bind].
        unfold exp_place, none in Hp. rewrite Est in Hp. cbn [nat_place] in Hp. rewrite Er in Hp.
        destruct (q_remove_tot q id (t_prio t) Hwf (or_introl (placed_ready_at _ _ _ Hp))) as (q' & ->). cbn [bind].
        eexists. exists wk, a, p, f. split; [reflexivity|]. split; [exact Hw|]. split; [exact Ea|].
        eapply (not_inA c w wk a p f id t HW Hw Ea Ef); intros; try intro; congruence. }
    destruct Htr as (c1 & wk1 & a1 & p1 & f1 & -> & Hw1 & Ea1 & Hna1). cbn [bind].
    change (c_workers (upd_task c1 (with_state t (Running w rv)))) with (c_workers c1). rewrite (get_worker_ok _ _ _ Hw1). cbn [bind].
    unfold insert_sn_task. rewrite Ea1, Hna1. cbn [bind]. apply Hstart. reflexivity.
  - (* RunningMN *) assert (E : exists ws0, ws = w :: ws0) by (destruct Hcase as [X|[X|[X|(ws0 & X)]]]; inversion X; eauto). destruct E as (ws0 & ->).
    rewrite N.eqb_refl. cbn [bind]. apply Hstart. reflexivity.
Qed.

Lemma requeue_tot s t c1 :
  WI (upd_task c1 (with_state t (Waiting 0))) -> QI none [] c1 -> find_task (c_tasks c1) (t_id t) = Some t ->
  (forall w, t_state t <> Prefilled w) ->
  (forall w, find_worker (c_workers c1) w <> None -> has_proc s w) ->
  exists s', (do (qs, ret) <- add_ready_task (c_queues c1) (with_state t (Waiting 0));
              do s'' <- process_retracted (st_core s (with_queues (upd_task c1 (with_state t (Waiting 0))) qs)) ret;
              Ok (s'', true)) = Ok (s', true).
Proof.
  intros HW V Ef Hnp Hpw.
  destruct (add_ready_task_tot (c_queues c1) (with_state t (Waiting 0))) as (qs & ret & qs1 & Ha & Hdis).
  { cbn [t_rq with_state]. exact (qv_rq _ _ _ _ _ _ V _ _ Ef). }
  rewrite Ha. cbn [bind]. cbn [t_prio with_state] in Hdis.
  destruct (dispose_ret_prefilled [] c1 _ _ _ V Hdis) as (Hnd & Hp).
  destruct (process_retracted_tot (st_core s (with_queues (upd_task c1 (with_state t (Waiting 0))) qs)) ret) as (s1 & ->).
  - exact HW.
  - intros w Hw. apply Hpw. exact Hw.
  - exact Hnd.
  - intros x Hx. destruct (Hp x Hx) as (_ & tx & wx & Hfx & Hsx). exists tx, wx. split; [|exact Hsx].
    cbn [core_of st_core with_core s_core fst c_tasks with_queues upd_task with_tasks]. rewrite find_set_task. cbn [t_id with_state].
    destruct (tid_eqb x (t_id t)) eqn:E; [|exact Hfx]. apply tid_eqb_eq in E. subst x. rewrite Ef in Hfx. inversion Hfx; subst tx.
    exfalso. exact (Hnp _ Hsx).
  - cbn [bind]. eauto.
Qed.

Lemma task_reject_tot s w id rv t : LI s -> find_task (c_tasks (core_of s)) id = Some t -> t_state t = Assigned w rv ->
  exists r, task_reject s w id (Some rv) = Ok r.
Proof.
  intros HL Ef Est. unfold task_reject. cbv zeta. set (c := core_of s) in *. rewrite Ef.
  pose proof (li_wi _ HL) as HW. pose proof (li_qi _ HL) as V. fold c in HW, V.
  destruct (find_task_some _ _ _ Ef) as [_ Hid].
  destruct (WIX_A _ _ id t w HW eq_refl Ef) as (wk & a & p & f & Hw & Ea & Hm); [rewrite Est; reflexivity|].
  rewrite (get_worker_ok _ _ _ Hw). cbn [bind].
  destruct (find_worker_some _ _ _ Hw) as [_ Hwi].
  match goal with |- context [upd_worker c ?k] => set (wk1 := k) in * end.
  assert (Hk1 : w_id wk1 = w /\ w_assign wk1 = w_assign wk).
  { subst wk1. destruct (nn_mem _ _); cbn; auto. }
  destruct Hk1 as [Hi1 Ha1].
  assert (W0 : WI (upd_worker c wk1)) by (eapply C_wsame; [exact HW | exact Hw | exact Hi1 | exact Ha1]).
  assert (Hw0 : find_worker (c_workers (upd_worker c wk1)) w = Some wk1).
  { cbn [c_workers upd_worker with_workers]. rewrite find_set_worker, Hi1, N.eqb_refl. reflexivity. }
  destruct (LI_get_rq s id t HL Ef) as (rq & Hrq). fold c in Hrq. rewrite Hrq. cbn [bind].
  rewrite Est. rewrite N.eqb_refl. cbn [negb]. rewrite N.eqb_refl.
  destruct (remove_sn_task_tot wk1 id (rq_res rq) a p f) as (wk' & Hrm & Hwi'); [rewrite Ha1; exact Ea | exact Hm|].
  rewrite Hrm. cbn [bind].
  assert (Hp : pl (t_state t) = PA w) by (rewrite Est; reflexivity).
  pose proof (C_relA InvWCore.x0 _ W0 id t w wk1 wk' (rq_res rq) eq_refl Ef Hp Hw0 Hrm) as W1.
  destruct (requeue_tot s t (upd_worker (upd_worker c wk1) wk')) as (s' & ->).
  - exact (C_show _ _ W1 InvWCore.x0 id (with_state t (Waiting 0)) ltac:(xs) ltac:(xs) Hid (or_introl eq_refl)).
  - exact V.
  - rewrite Hid. exact Ef.
  - intros w0. rewrite Est. discriminate.
  - intros w0 Hw0'. apply (PI_PWc _ (li_pi _ HL)). fold c.
    cbn [c_workers upd_worker with_workers] in Hw0'. rewrite !find_set_worker in Hw0'.
    rewrite Hwi', Hi1 in Hw0'. destruct (N.eqb w0 w) eqn:E; [apply N.eqb_eq in E; subst w0; rewrite Hw; discriminate | exact Hw0'].
  - eauto.
Qed.
