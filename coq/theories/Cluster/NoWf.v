(** The hypothesis [op_wf] is not needed for statements about reachable STATES.

    [op_wf] (a task-array submit has no more explicit ids than entries) is a hypothesis of the
    bijection theorem and of everything built on it; finding F26 showed it could not be dropped: the
    real server accepted such a submit and left phantom tasks.  Since the repair of F26 the server
    - and [Sys.step] - refuses a submit whose ids and entries differ in number, state untouched.  So
    an operation that is not [op_wf] is a stutter step, every reachable state is reachable by a
    history of [op_wf] operations, and a property of all states reachable by such histories holds
    of ALL reachable states ([reach_drop_wf]).  [ops_ok] is transported along. *)
From HQ Require Import Base.Prelude Cluster.Types Cluster.Sys Cluster.BijFinal Cluster.NoPanicU0 Cluster.InvBundle Cluster.NoFresh Cluster.NoPanicU1 Cluster.NoPanicFull.
From Coq Require Import ZArith Lia.
Local Open Scope N_scope.

Definition op_wfb (o : op) : bool :=
  match o with
  | OpSubmit _ ids (Some n) _ _ _ _ _ => Nat.leb (length ids) (N.to_nat n)
  | _ => true
  end.

Lemma op_wfb_ok o : op_wfb o = true <-> op_wf o.
Proof.
  destruct o; cbn [op_wfb op_wf]; try tauto.
  destruct entries; [apply Nat.leb_le | tauto].
Qed.

Lemma not_wf_stutter s o : op_wfb o = false -> step s o = Ok (s, [OResp (RSubmitErr 6 0)]).
Proof. intros H. destruct (wf_or_stutter s o) as [Hw|E]; [apply op_wfb_ok in Hw; congruence | exact E]. Qed.

Lemma run_filter_wf ops : forall s s' outs, run s ops = Ok (s', outs) ->
  exists outs', run s (filter op_wfb ops) = Ok (s', outs').
Proof.
  induction ops as [|o r IH]; intros s s' outs H; [inversion H; subst; eexists; reflexivity|].
  cbn [run] in H. apply bind_ok in H as ([s1 o1] & H1 & H). apply bind_ok in H as ([s2 o2] & H2 & H). inversion H; subst.
  cbn [filter]. destruct (op_wfb o) eqn:E.
  - destruct (IH _ _ _ H2) as (outs' & Hr). eexists. cbn [run]. rewrite H1. cbn [bind]. rewrite Hr. reflexivity.
  - rewrite (not_wf_stutter s o E) in H1. inversion H1; subst. exact (IH _ _ _ H2).
Qed.

Lemma ops_ok_filter_wf ops : forall s, ops_ok s ops = true -> ops_ok s (filter op_wfb ops) = true.
Proof.
  induction ops as [|o r IH]; intros s H; [reflexivity|].
  cbn [ops_ok] in H. apply andb_true_iff in H. destruct H as [Ho H].
  cbn [filter]. destruct (op_wfb o) eqn:E.
  - cbn [ops_ok]. rewrite Ho. cbn [andb]. destruct (step s o) as [[s1 o1]| |]; [apply IH; exact H | reflexivity | reflexivity].
  - rewrite (not_wf_stutter s o E) in H. apply IH. exact H.
Qed.

(** Transport: a property proved for the states reachable by well-formed histories holds of every
    reachable state. *)
Theorem reach_drop_wf (P : sys -> Prop) r m :
  (forall ops s outs, Forall op_wf ops -> ops_ok (init_sys r m) ops = true -> run (init_sys r m) ops = Ok (s, outs) -> P s) ->
  forall ops s outs, ops_ok (init_sys r m) ops = true -> run (init_sys r m) ops = Ok (s, outs) -> P s.
Proof.
  intros HP ops s outs Hok H.
  destruct (run_filter_wf ops _ _ _ H) as (outs' & Hr).
  apply (HP (filter op_wfb ops) s outs'); [| apply ops_ok_filter_wf; exact Hok | exact Hr].
  apply Forall_forall. intros o Ho. apply filter_In in Ho. apply op_wfb_ok. exact (proj2 Ho).
Qed.

Theorem reachable_all_nowf ops r m s outs :
  ops_ok (init_sys r m) ops = true -> run (init_sys r m) ops = Ok (s, outs) ->
  INV s /\ PROTO s.
Proof.
  apply (reach_drop_wf (fun s => INV s /\ PROTO s)). intros ops0 s0 outs0 Hwf Hok H.
  destruct (reachable_all ops0 r m s0 outs0 Hwf Hok H) as (A & B & _). split; assumption.
Qed.

(** C09 without [op_wf]: NO REACHABLE PANIC under the executable hypothesis [run_hyp] alone. *)
Theorem no_reachable_panic_nowf ops reserve maxfill :
  run_hyp (init_sys reserve maxfill) ops = true -> is_panic (run (init_sys reserve maxfill) ops) = false.
Proof.
  intros Hh. apply (no_panic_from_nowf ops reserve maxfill [] (init_sys reserve maxfill) []); [constructor | reflexivity | reflexivity | exact Hh].
Qed.

Print Assumptions no_reachable_panic_nowf.
Print Assumptions reach_drop_wf.
Print Assumptions reachable_all_nowf.
