(** C08, item "reservations released": after an answered cancel request NOTHING of the cancelled job
    is left anywhere in the scheduler core - no task, no member of a worker's assigned / prefilled
    set, no multi-node assignment, no queue entry (ready or prefill), no redirect.

    The proof is a corollary of the invariants of reachable states (InvBundle.v): the state after
    the cancel is reachable, [cancel_leaves_none] (ProofsAll.v) empties the job in the job layer, the
    bijection [CB] carries this to the core's task map, and worker sets / queues / redirects name
    core tasks only ([WI], [queue_statement]).  The resource counters are in ReleaseFree.v. *)
From HQ Require Import Base.Prelude Cluster.Types Cluster.Core Cluster.Reactor Cluster.Worker Cluster.Server Cluster.Sys Cluster.Monitors Cluster.ProofsJob Cluster.ProofsMore Cluster.ProofsTerminal Cluster.ProofsStep Cluster.ProofsFinal Cluster.ProofsAll Cluster.BijBase Cluster.BijCore Cluster.BijHq Cluster.BijSt Cluster.BijReact Cluster.BijFinal Cluster.RejHyp Cluster.InvWBase Cluster.InvWView Cluster.InvWCore Cluster.InvWFinal Cluster.InvQBase Cluster.InvQStep Cluster.InvAll Cluster.InvBundle.
From HQ Require Import Cluster.StepShape.
From HQ Require Import Cluster.ModelFacts.
From Coq Require Import ZArith Lia.
Local Open Scope N_scope.

Arguments N.add : simpl never.
Arguments N.sub : simpl never.

Lemma reachable_snoc ops r m s outs o s' outs' :
  Forall op_wf ops -> run_fresh (init_sys r m) ops = true -> run (init_sys r m) ops = Ok (s, outs) ->
  op_wf o -> step_fresh s o = true -> step s o = Ok (s', outs') ->
  Forall op_wf (ops ++ [o]) /\ run_fresh (init_sys r m) (ops ++ [o]) = true /\
  run (init_sys r m) (ops ++ [o]) = Ok (s', outs ++ outs').
Proof.
  intros Hwf Hf Hr Ho Hsf Hst. split; [apply Forall_snoc; assumption|]. split.
  - rewrite (run_fresh_snoc _ _ _ _ _ Hr Hf), Hsf, Hst. reflexivity.
  - eapply run_snoc; eassumption.
Qed.

Lemma reachable_step_INV ops r m s outs o s' outs' :
  Forall op_wf ops -> run_fresh (init_sys r m) ops = true -> run (init_sys r m) ops = Ok (s, outs) ->
  op_wf o -> step_fresh s o = true -> step s o = Ok (s', outs') -> INV s'.
Proof.
  intros Hwf Hf Hr Ho Hsf Hst.
  destruct (reachable_snoc _ _ _ _ _ _ _ _ Hwf Hf Hr Ho Hsf Hst) as (A & B & C).
  exact (reachable_INV _ _ _ _ _ A B C).
Qed.

Lemma cnt_zero_find l v : cnt l v = 0 -> forall k, jt_find l k <> Some v.
Proof.
  induction l as [|[k0 x] r IH]; cbn [cnt jt_find]; intros H k; [discriminate|].
  destruct (jst_eqb x v) eqn:E; [lia|].
  destruct (N.eqb k k0).
  - intros Hx. inversion Hx; subst. destruct v; discriminate.
  - apply IH. lia.
Qed.

Lemma cancel_none_active s j s' :
  HOK (hq_of s) -> handle_cancel s j = Ok s' -> forall x, fst x = j -> ~ BijBase.active s' x.
Proof.
  intros Hok Hc x Hx (l & Hl & Ha).
  destruct (find_job (hq_jobs s) j) as [jb|] eqn:Ej.
  - destruct (cancel_leaves_none _ _ _ _ Hok Ej Hc) as (j' & Hj' & Hz).
    unfold jt in Hl. rewrite Hx, Hj' in Hl. cbn [option_map] in Hl. inversion Hl; subst l.
    unfold ProofsAll.active in Hz.
    destruct Ha as [Ha|Ha]; [apply (cnt_zero_find (j_tasks j') JW) in Ha | apply (cnt_zero_find (j_tasks j') JR) in Ha]; try exact Ha; lia.
  - unfold handle_cancel in Hc. rewrite Ej in Hc. inversion Hc; subst s'.
    unfold jt in Hl. rewrite emit_hq, Hx in Hl. unfold hq_jobs, hq_of in *. rewrite Ej in Hl. discriminate.
Qed.

Definition job_free_core (c : core) (j : N) : Prop :=
  (* (i) the task map *)
  (forall t, In t (c_tasks c) -> fst (t_id t) <> j) /\
  (* (ii) the worker bookkeeping *)
  (forall wk, In wk (c_workers c) ->
     match w_assign wk with
     | Sn a p _ => (forall id, In id a -> fst id <> j) /\ (forall id, In id p -> fst id <> j)
     | Mn t _ => fst t <> j
     end) /\
  (* (iii) the queues *)
  (forall q, In q (c_queues c) -> forall id, fst id = j -> in_ready q id = false /\ in_prefill q id = false) /\
  (* (iv) the redirects *)
  (forall id v, In (id, v) (c_redirects c) -> fst id <> j).

Lemma INV_job_free s j :
  INV s -> (forall t, In t (c_tasks (s_core s)) -> fst (t_id t) <> j) -> job_free_core (s_core s) j.
Proof.
  intros I Ht.
  assert (Hlive : forall id t, find_task (c_tasks (s_core s)) id = Some t -> fst id <> j).
  { intros id t Hf. destruct (find_task_some _ _ _ Hf) as [Hin Hid]. rewrite <- Hid. apply Ht. exact Hin. }
  split; [exact Ht|]. split; [|split].
  - pose proof (WI_worker_sets_ok _ (inv_w _ I)) as Hws. rewrite forallb_forall in Hws.
    intros wk Hin. specialize (Hws _ Hin). unfold worker_sets_ok in Hws.
    destruct (w_assign wk) as [a p f|mt root].
    + apply andb_true_iff in Hws. destruct Hws as [Ha Hp]. rewrite forallb_forall in Ha, Hp.
      split; intros id Hid; [specialize (Ha _ Hid) | specialize (Hp _ Hid)];
        (destruct (find_task (c_tasks (s_core s)) id) as [t|] eqn:Ef; [eapply Hlive; exact Ef | discriminate]).
    + destruct (find_task (c_tasks (s_core s)) mt) as [t|] eqn:Ef; [eapply Hlive; exact Ef | discriminate].
  - destruct (inv_qs _ I) as (_ & _ & Hq & _).
    intros q Hin id Hid. apply In_nth_error in Hin. destruct Hin as (n & Hn).
    assert (Hno : in_ready q id = true \/ in_prefill q id = true -> False).
    { intros Hor. destruct (Hq _ _ _ Hn Hor) as (t & Hf & _). exact (Hlive _ _ Hf Hid). }
    destruct (in_ready q id); [exfalso; apply Hno; left; reflexivity|].
    destruct (in_prefill q id); [exfalso; apply Hno; right; reflexivity|]. split; reflexivity.
  - destruct (inv_qs _ I) as (Hl & _). unfold queues_live_ok in Hl. apply andb_true_iff in Hl. destruct Hl as [_ Hr].
    rewrite forallb_forall in Hr. intros id v Hin. specialize (Hr _ Hin). cbn [fst] in Hr.
    destruct (find_task (c_tasks (s_core s)) id) as [t|] eqn:Ef; [eapply Hlive; exact Ef | discriminate].
Qed.

Theorem cancel_releases_everything ops reserve maxfill s outs j s' outs' :
  Forall op_wf ops -> run_fresh (init_sys reserve maxfill) ops = true -> run (init_sys reserve maxfill) ops = Ok (s, outs) ->
  step s (OpCancel j) = Ok (s', outs') ->
  job_free_core (s_core s') j.
Proof.
  intros Hwf Hf Hr Hst.
  pose proof (reachable_INV _ _ _ _ _ Hwf Hf Hr) as HI.
  pose proof (reachable_step_INV _ _ _ _ _ (OpCancel j) _ _ Hwf Hf Hr I (eq_refl : step_fresh s (OpCancel j) = true) Hst) as HI'.
  apply INV_job_free; [exact HI'|].
  intros t Hin Hj. cbn [step] in Hst.
  apply (cancel_none_active (s, []) j (s', outs') (inv_hok _ HI) Hst (t_id t) Hj).
  apply (active_same (s', []) (s', outs')); [intros id; reflexivity|].
  apply (cb_b _ (inv_cb _ HI')). unfold K. apply present_ids. apply in_map. exact Hin.
Qed.

(** Non-vacuity: a job with two running tasks and a prefilled one (worker sets and the prefill
    queue name the job), then the cancel. *)
Definition rel_rq : rqdef := mkRq 0 [10000; 0; 0].
Definition rel_ops : list op :=
  [OpConnect [30000; 0; 0] 0;
   OpSubmit None [] (Some 3) rel_rq 0%Z (CMax 3) false None;
   OpSched (mkSol [(0, 0, [(1, 2)])] [] [1] []);
   OpDDown 1 []; OpDDown 1 []; OpDUp 1].

Example cancel_releases_example :
  Forall op_wf rel_ops /\ run_fresh (init_sys 0 2) rel_ops = true /\
  exists s outs s' outs',
    run (init_sys 0 2) rel_ops = Ok (s, outs) /\ step s (OpCancel 1) = Ok (s', outs') /\
    map (fun t => (t_id t, t_state t)) (c_tasks (s_core s)) = [((1, 0), Running 1 0); ((1, 1), Running 1 0); ((1, 2), Prefilled 1)] /\
    map w_assign (c_workers (s_core s)) = [Sn [(1, 0); (1, 1)] [(1, 2)] [10000; 0; 0]] /\
    c_queues (s_core s) = [mkQ [] (Some (0%Z, [(1, 2)]))] /\
    c_tasks (s_core s') = [] /\
    map w_assign (c_workers (s_core s')) = [Sn [] [] [30000; 0; 0]] /\
    c_queues (s_core s') = [mkQ [] None].
Proof.
  split; [repeat constructor; cbn; lia|]. split; [vm_compute; reflexivity|].
  do 4 eexists. split; [vm_compute; reflexivity|]. split; [vm_compute; reflexivity|].
  repeat split; vm_compute; reflexivity.
Qed.

Print Assumptions cancel_releases_everything.
