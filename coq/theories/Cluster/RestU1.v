(** C02 "no task lost or stuck", the safety part of the progress half: WHEN THE SYSTEM IS AT REST NO
    TASK IS IN AN IN-BETWEEN STATE.  Here: what the protocol invariant [PROTO] alone gives.

    [at_rest s]: the scheduler has nothing to do ([c_flag] off) and every worker process has empty
    channels, no running task and no task future (the monitor `task-in-limbo-at-rest` of
    ocaml/cluster/driver.ml tests [RestU13.at_rest_mon], which gives it under [PROTO]).

    [at_rest_states_PROTO]: in a reachable state at rest every task of the core is
      - [Waiting _], or
      - [Prefilled w] with its entry still in the backlog of [w] (a worker at rest can hold backlog
        entries: a prefilled task whose predecessor ended before the prefill message arrived waits
        for the scheduler, whose answers the model does not force to make progress), or
      - [Running w _] / [RunningMN (w :: _)] with the process of [w] holding NOTHING about it.
    The last case is not excluded by [PROTO]: its word language accepts the empty word for these
    views, because a worker ends a task SILENTLY when its future was stopped by a cancel request,
    and the words do not record stop flags.  It is excluded in RestU12.v by the extra invariants
    "a task the core knows is never stop-cancelled on a worker" ([RestU3.SCN]) and "no silent end"
    ([RestU11.NB]). *)
From HQ Require Import Base.Prelude Cluster.Types Cluster.Core Cluster.Reactor Cluster.InvQInv Cluster.InvBundle Cluster.InvProcsDef Cluster.NoPanicC1 Cluster.NoPanicC2 Cluster.NoPanicL0 Cluster.NoPanicU0 Cluster.NoPanicU1.
From HQ Require Import Cluster.ModelFacts.
From Coq Require Import ZArith.
Local Open Scope N_scope.

Definition quiet_proc (p : wproc) : Prop := p_down p = [] /\ p_up p = [] /\ p_running p = [] /\ p_futures p = [].
Definition at_rest (s : sys) : Prop := c_flag (s_core s) = false /\ forall p, In p (s_procs s) -> quiet_proc p.

Definition is_nilb {A} (l : list A) : bool := match l with [] => true | _ => false end.
Definition at_restb (s : sys) : bool :=
  negb (c_flag (s_core s)) && forallb (fun p => is_nilb (p_down p) && is_nilb (p_up p) && is_nilb (p_running p) && is_nilb (p_futures p)) (s_procs s).
Lemma at_restb_ok s : at_restb s = true <-> at_rest s.
Proof.
  unfold at_restb, at_rest, quiet_proc. rewrite andb_true_iff, negb_true_iff, forallb_forall. apply and_iff_compat_l.
  split; intros H p Hp; specialize (H p Hp).
  - rewrite !andb_true_iff in H. destruct H as [[[A B] C] D]. destruct (p_down p), (p_up p), (p_running p), (p_futures p); try discriminate; auto.
  - destruct H as (-> & -> & -> & ->). reflexivity.
Qed.

Lemma quiet_word p x : quiet_proc p -> uitems x (p_up p) = [] /\ ditems x (p_down p) = [] /\
  local p x = match bl_count x (p_backlog p) with O => LNone | S O => LBack | _ => LBad end.
Proof. intros (-> & -> & Hr & _). unfold local. rewrite Hr. cbn. auto. Qed.

Lemma lang_quiet v L : lang v [] L [] = true -> (forall rv, L <> LRun rv) ->
  (v = VN /\ L = LNone) \/ (v = VP /\ L = LBack) \/ ((exists rv, v = VR rv) /\ L = LNone) \/ (v = VM true /\ L = LNone).
Proof.
  intros H Hn. lang_auto H; try (exfalso; eapply Hn; reflexivity).
  - right. right. left. split; [eexists; reflexivity | reflexivity].
Qed.

Theorem at_rest_states_PROTO s : INV s -> PW s -> RWA (s_core s) -> MNE (s_core s) -> PROTO s -> at_rest s ->
  forall x t, find_task (c_tasks (s_core s)) x = Some t ->
    match t_state t with
    | Waiting _ => True
    | Prefilled w => exists p, find_proc (s_procs s) w = Some p /\ bl_count x (p_backlog p) = 1%nat
    | Running w _ => exists p, find_proc (s_procs s) w = Some p /\ bl_count x (p_backlog p) = O
    | RunningMN (w :: _) => exists p, find_proc (s_procs s) w = Some p /\ bl_count x (p_backlog p) = O
    | _ => False
    end.
Proof.
  intros HI HPW HR HM HP [_ Hq] x t Hf. pose proof (inv_w _ HI) as HW.
  destruct (find_task_some _ _ _ Hf) as [Hin Hid].
  assert (Hown : forall w, (exists wk, find_worker (c_workers (s_core s)) w = Some wk) ->
            match view_of (t_state t) w (job_running (s_hq s) x) with
            | VN => True
            | VP => exists p, find_proc (s_procs s) w = Some p /\ bl_count x (p_backlog p) = 1%nat
            | VR _ | VM _ => exists p, find_proc (s_procs s) w = Some p /\ bl_count x (p_backlog p) = O
            | _ => False
            end).
  { intros w (wk & Hw). assert (Hne : find_worker (c_workers (s_core s)) w <> None) by congruence.
    pose proof (PW_PWc s [] HPW w Hne) as X. unfold has_proc in X. cbn in X.
    destruct (find_proc (s_procs s) w) as [p|] eqn:Hp; [|congruence].
    pose proof (pr_words _ HP w p x t Hp Hf) as Hl.
    destruct (quiet_word p x (Hq p (proj1 (find_proc_some _ _ _ Hp)))) as (EU & ED & EL). rewrite EU, ED, EL in Hl.
    assert (Hn : forall rv, match bl_count x (p_backlog p) with O => LNone | S O => LBack | _ => LBad end <> LRun rv) by (intros rv; destruct (bl_count x (p_backlog p)) as [|[|k]]; discriminate).
    destruct (lang_quiet _ _ Hl Hn) as [[-> B]|[[-> B]|[[(rv & ->) B]|[-> B]]]]; [exact I | | |];
      exists p; (split; [reflexivity|]); destruct (bl_count x (p_backlog p)) as [|[|k]]; try discriminate; reflexivity. }
  destruct (t_state t) as [n|w rv|w|w|w rv|[|w ws]|] eqn:Est; [exact I | | | | | | |].
  - destruct (WIX_A _ _ x t w HW eq_refl Hf) as (wk & a & p0 & f & Hw & _); [rewrite Est; reflexivity|].
    specialize (Hown w (ex_intro _ wk Hw)). cbn [view_of] in Hown. rewrite N.eqb_refl in Hown. exact Hown.
  - destruct (WIX_P _ _ x t w HW eq_refl Hf) as (wk & a & p0 & f & Hw & _); [rewrite Est; reflexivity|].
    specialize (Hown w (ex_intro _ wk Hw)). cbn [view_of] in Hown. rewrite N.eqb_refl in Hown. exact Hown.
  - specialize (Hown w (HR t w Hin Est)). cbn [view_of] in Hown. rewrite N.eqb_refl in Hown. exact Hown.
  - destruct (WIX_A _ _ x t w HW eq_refl Hf) as (wk & a & p0 & f & Hw & _); [rewrite Est; reflexivity|].
    specialize (Hown w (ex_intro _ wk Hw)). cbn [view_of] in Hown. rewrite N.eqb_refl in Hown. exact Hown.
  - exact (HM t Hin Est).
  - destruct (WIX_M _ _ x t (w :: ws) w HW eq_refl Hf) as (wk & root & Hw & _); [rewrite Est; reflexivity | left; reflexivity|].
    specialize (Hown w (ex_intro _ wk Hw)). cbn [view_of] in Hown. rewrite N.eqb_refl in Hown. exact Hown.
  - exact (qv_fin _ _ _ _ _ _ (inv_q _ HI) _ _ Hf Est).
Qed.
