(** C14 / C03, "tasks are aborted only with a cause": what a piece of the server's
    execution does to the jobs' failure counters.

    [JE s s' ext]: the piece from [s] to [s'] appended the outputs [ext]; it answered no submit
    ([NS]); every job of [s'] is a job of [s] with the same failure limit and the same task ids,
    and its failure counter grew by exactly the number of [EvFailed] events of that job in [ext]
    ([onfailed]); the job-id counter is unchanged; a job that failed a task existed in [s].
    This is a frame property of the code (no invariant needed).  Proved here for the job-layer
    primitives ([JQ]: ... and no [EvAborted] is emitted, [NA]).  The only primitives that emit an
    abort are [abort_tasks] (shape in [abort_tasks_JE]) and [process_task_failed]:
    [process_task_failed_AC] (with the counters exact, [HOK]) - the abort of the dependents is
    IMMEDIATELY followed by the failure (no [EvCompleted] in between: the failing task is still
    active), and the second abort happens only with the limit exceeded. *)
From HQ Require Import Base.Prelude Cluster.Types Cluster.Core Cluster.Reactor Cluster.Worker Cluster.Server Cluster.Sys Cluster.Monitors Cluster.ProofsJob Cluster.ProofsMore Cluster.ProofsTerminal Cluster.ProofsStep Cluster.ProofsFinal Cluster.BijBase Cluster.BijHq Cluster.ProofsOnce Cluster.StartFinBase Cluster.AbortCauseBase.
From HQ Require Import Cluster.ModelFacts.
From Coq Require Import ZArith Lia.
Local Open Scope N_scope.

Arguments N.add : simpl never.
Arguments N.sub : simpl never.

Definition jobs (s : st) : list job := h_jobs (hq_of s).

Definition ofailed1 (k : N) (o : out) : N :=
  match o with OEv (EvFailed t _) => if N.eqb (fst t) k then 1 else 0 | _ => 0 end.
Fixpoint onfailed (k : N) (outs : list out) : N :=
  match outs with [] => 0 | o :: r => ofailed1 k o + onfailed k r end.
Lemma onfailed_app k a : forall b, onfailed k (a ++ b) = onfailed k a + onfailed k b.
Proof. induction a as [|o r IH]; intros b; cbn [app onfailed]; [lia | rewrite IH; lia]. Qed.

Definition nsb (o : out) : bool := match o with OResp (RSubmitOk _ _ _) => false | _ => true end.
Definition NS (ext : list out) : Prop := forallb nsb ext = true.
Definition nab (o : out) : bool := match o with OEv (EvAborted _) => false | _ => true end.
Definition NA (ext : list out) : Prop := forallb nab ext = true.
Definition nfb (o : out) : bool := match o with OEv (EvFailed _ _) => false | _ => true end.

Lemma NS_app a b : NS a -> NS b -> NS (a ++ b).
Proof. unfold NS. intros A B. rewrite forallb_app, A, B. reflexivity. Qed.
Lemma NA_app a b : NA a -> NA b -> NA (a ++ b).
Proof. unfold NA. intros A B. rewrite forallb_app, A, B. reflexivity. Qed.
Lemma NS_in ext j n ids : NS ext -> ~ In (OResp (RSubmitOk j n ids)) ext.
Proof. intros H Hin. unfold NS in H. rewrite forallb_forall in H. specialize (H _ Hin). discriminate. Qed.
Lemma NA_in ext ts : NA ext -> ~ In (OEv (EvAborted ts)) ext.
Proof. intros H Hin. unfold NA in H. rewrite forallb_forall in H. specialize (H _ Hin). discriminate. Qed.
Lemma onfailed_nf k ext : forallb nfb ext = true -> onfailed k ext = 0.
Proof.
  induction ext as [|o r IH]; cbn [forallb onfailed]; intros H; [reflexivity|].
  apply andb_true_iff in H. destruct H as [H1 H2]. rewrite (IH H2).
  destruct o as [e| | | | | |]; try reflexivity. destruct e; try reflexivity. discriminate.
Qed.

Definition same_ids (l l' : list (N * jstate)) : Prop := forall i, jt_find l' i = None <-> jt_find l i = None.
Lemma same_ids_refl l : same_ids l l.
Proof. intros i. tauto. Qed.
Lemma same_ids_trans a b c : same_ids a b -> same_ids b c -> same_ids a c.
Proof. intros A B i. rewrite (B i). apply A. Qed.
Lemma jt_set_same_ids l t v v' : jt_find l t = Some v -> same_ids l (jt_set l t v').
Proof.
  intros H i. rewrite jt_find_set. destruct (N.eqb i t) eqn:E; [|tauto].
  apply N.eqb_eq in E. subst i. rewrite H. split; discriminate.
Qed.

Record JE (s s' : st) (ext : list out) : Prop := mkJE {
  je_ns : NS ext;
  je_old : forall k j', find_job (jobs s') k = Some j' ->
             exists j, find_job (jobs s) k = Some j /\ j_maxfails j' = j_maxfails j /\
                       same_ids (j_tasks j) (j_tasks j') /\ j_nfail j' = j_nfail j + onfailed k ext;
  je_cnt : cnt_of s' = cnt_of s;
  je_fail : forall k, onfailed k ext <> 0 -> find_job (jobs s) k <> None
}.

Definition JX (s s' : st) : Prop := exists ext, snd s' = snd s ++ ext /\ JE s s' ext.
(** ... and no abort event *)
Definition JQ (s s' : st) : Prop := exists ext, snd s' = snd s ++ ext /\ JE s s' ext /\ NA ext.

Lemma JE_same_ext s s' ext : hq_of s' = hq_of s -> forallb nsb ext = true -> forallb nfb ext = true -> JE s s' ext.
Proof.
  intros E N F. constructor; [exact N | | unfold cnt_of; rewrite E; reflexivity | intros k H; exfalso; apply H; apply onfailed_nf; exact F].
  intros k j' H. unfold jobs in *. rewrite E in H. exists j'. split; [exact H|]. split; [reflexivity|]. split; [apply same_ids_refl|].
  rewrite (onfailed_nf _ _ F). lia.
Qed.

Lemma JE_same s s' : hq_of s' = hq_of s -> JE s s' [].
Proof. intros E. apply JE_same_ext; [exact E | reflexivity | reflexivity]. Qed.

Lemma JE_refl s : JE s s [].
Proof. apply JE_same. reflexivity. Qed.

Lemma JE_trans s1 s2 s3 e1 e2 : JE s1 s2 e1 -> JE s2 s3 e2 -> JE s1 s3 (e1 ++ e2).
Proof.
  intros [N1 O1 C1 F1] [N2 O2 C2 F2]. constructor.
  - apply NS_app; assumption.
  - intros k j3 H3. destruct (O2 _ _ H3) as (j2 & H2 & M2 & K2 & X2). destruct (O1 _ _ H2) as (j1 & H1 & M1 & K1 & X1).
    exists j1. split; [exact H1|]. split; [congruence|]. split; [eapply same_ids_trans; eassumption|]. rewrite onfailed_app. lia.
  - congruence.
  - intros k H. rewrite onfailed_app in H.
    destruct (N.eq_dec (onfailed k e1) 0) as [Z|NZ]; [|apply F1; exact NZ].
    assert (NZ2 : onfailed k e2 <> 0) by lia. specialize (F2 _ NZ2).
    destruct (find_job (jobs s2) k) as [j2|] eqn:E2; [|congruence].
    destruct (O1 _ _ E2) as (j1 & H1 & _). congruence.
Qed.

Lemma JX_refl s : JX s s.
Proof. exists []. rewrite app_nil_r. split; [reflexivity | apply JE_refl]. Qed.
Lemma JX_trans s1 s2 s3 : JX s1 s2 -> JX s2 s3 -> JX s1 s3.
Proof.
  intros (e1 & E1 & J1) (e2 & E2 & J2). exists (e1 ++ e2). split; [rewrite E2, E1, app_assoc; reflexivity|].
  eapply JE_trans; eassumption.
Qed.
Lemma JQ_JX s s' : JQ s s' -> JX s s'.
Proof. intros (e & E & J & _). exists e. split; assumption. Qed.
Lemma JQ_refl s : JQ s s.
Proof. exists []. rewrite app_nil_r. split; [reflexivity|]. split; [apply JE_refl | reflexivity]. Qed.
Lemma JQ_trans s1 s2 s3 : JQ s1 s2 -> JQ s2 s3 -> JQ s1 s3.
Proof.
  intros (e1 & E1 & J1 & A1) (e2 & E2 & J2 & A2). exists (e1 ++ e2). split; [rewrite E2, E1, app_assoc; reflexivity|].
  split; [eapply JE_trans; eassumption | apply NA_app; assumption].
Qed.

Lemma JQ_same s s' : hq_of s' = hq_of s -> snd s' = snd s -> JQ s s'.
Proof. intros E Es. exists []. rewrite app_nil_r. split; [exact Es|]. split; [apply JE_same; exact E | reflexivity]. Qed.

Lemma JE_set s j j' ext s' :
  find_job (jobs s) (j_id j') = Some j -> j_maxfails j' = j_maxfails j -> same_ids (j_tasks j) (j_tasks j') ->
  NS ext -> j_nfail j' = j_nfail j + onfailed (j_id j') ext -> (forall k, k <> j_id j' -> onfailed k ext = 0) ->
  hq_of s' = hq_of (hq_set_job s j') -> JE s s' ext.
Proof.
  intros Hf Hm Hk Hn Hx Ho E. constructor.
  - exact Hn.
  - intros k jx H. unfold jobs in H. rewrite E in H. unfold hq_of, hq_set_job in H. cbn [fst s_hq with_hq h_jobs] in H.
    rewrite find_job_set in H. destruct (N.eqb k (j_id j')) eqn:Ek.
    + apply N.eqb_eq in Ek. subst k. inversion H; subst jx. exists j. split; [exact Hf|]. split; [exact Hm|]. split; [exact Hk | exact Hx].
    + apply N.eqb_neq in Ek. exists jx. split; [exact H|]. split; [reflexivity|]. split; [apply same_ids_refl|]. rewrite (Ho _ Ek). lia.
  - unfold cnt_of. rewrite E. reflexivity.
  - intros k H. destruct (N.eq_dec k (j_id j')) as [->|Hne]; [congruence|]. exfalso. apply H. apply Ho. exact Hne.
Qed.

Lemma get_find s id site j : hq_get_job s id site = Ok j -> find_job (jobs s) id = Some j /\ j_id j = id.
Proof.
  unfold hq_get_job, jobs, hq_of. destruct (find_job _ id) as [x|] eqn:E; [|discriminate].
  intros H; inversion H; subst. split; [reflexivity | eapply find_job_id; exact E].
Qed.

Lemma find_set_self s j : find_job (jobs (hq_set_job s j)) (j_id j) = Some j.
Proof. unfold jobs, hq_of, hq_set_job. cbn [fst s_hq with_hq h_jobs]. rewrite find_job_set, N.eqb_refl. reflexivity. Qed.


Lemma jobs_emit s o : jobs (emit s o) = jobs s.
Proof. reflexivity. Qed.

Lemma check_termination_JE s jid s' :
  check_termination s jid = Ok s' ->
  exists q, snd s' = snd s ++ q /\ JE s s' q /\ NA q /\
    (q = [] \/ (q = [OEv (EvCompleted jid)] /\ exists j, find_job (jobs s') jid = Some j /\ j_completed j = true)).
Proof.
  unfold check_termination. intros H. apply bind_ok in H. destruct H as (j & Hj & H). apply bind_ok in H. destruct H as (na & _ & H).
  destruct (get_find _ _ _ _ Hj) as [Hf Hid].
  assert (Hnone : s' = s -> exists q, snd s' = snd s ++ q /\ JE s s' q /\ NA q /\
            (q = [] \/ (q = [OEv (EvCompleted jid)] /\ exists j, find_job (jobs s') jid = Some j /\ j_completed j = true))).
  { intros ->. exists []. rewrite app_nil_r. split; [reflexivity|]. split; [apply JE_refl|]. split; [reflexivity | left; reflexivity]. }
  destruct na; [|inversion H; subst; apply Hnone; reflexivity].
  destruct (j_open j); [inversion H; subst; apply Hnone; reflexivity|].
  inversion H; subst s'. clear H Hnone.
  set (j' := job_upd j (j_tasks j) (j_nrun j) (j_nfin j) (j_nfail j) (j_ncanc j) (j_nabort j) true).
  exists [OEv (EvCompleted jid)]. split; [reflexivity|]. split.
  - apply (JE_set s j j'); [cbn [j' j_id job_upd]; rewrite Hid; exact Hf | reflexivity | apply same_ids_refl | reflexivity
                           | cbn [j' j_nfail job_upd onfailed ofailed1]; lia | intros; reflexivity | reflexivity].
  - split; [reflexivity|]. right. split; [reflexivity|]. exists j'. split; [|reflexivity].
    rewrite jobs_emit. pose proof (find_set_self s j') as Hs. cbn [j' j_id job_upd] in Hs. rewrite Hid in Hs. exact Hs.
Qed.

Lemma check_termination_JQ s jid s' : check_termination s jid = Ok s' -> JQ s s'.
Proof. intros H. destruct (check_termination_JE _ _ _ H) as (q & E & J & A & _). exists q. split; [exact E|]. split; assumption. Qed.

Lemma process_task_started_JQ s t i ws rv s' : process_task_started s t i ws rv = Ok s' -> JQ s s'.
Proof.
  unfold process_task_started. intros H. apply bind_ok in H. destruct H as (j & Hj & H).
  destruct (get_find _ _ _ _ Hj) as [Hf Hid].
  destruct (jt_find (j_tasks j) (snd t)) as [v|] eqn:Ef; [|discriminate]. inversion H; subst s'. clear H.
  exists [OEv (EvStarted t i ws rv)]. split; [reflexivity|]. split; [|reflexivity].
  match goal with |- JE s (emit (hq_set_job s ?jx) _) _ => set (j' := jx) end.
  assert (Hid' : j_id j' = j_id j) by (subst j'; destruct v; reflexivity).
  apply (JE_set s j j'); [rewrite Hid', Hid; exact Hf | subst j'; destruct v; reflexivity | | reflexivity
                         | subst j'; destruct v; cbn [j_nfail job_upd onfailed ofailed1]; lia | intros; reflexivity | reflexivity].
  subst j'. destruct v; try apply same_ids_refl. cbn [j_tasks job_upd]. eapply jt_set_same_ids; exact Ef.
Qed.

Lemma JQ_set_then s j j' o s1 s' :
  find_job (jobs s) (j_id j') = Some j -> j_maxfails j' = j_maxfails j -> same_ids (j_tasks j) (j_tasks j') -> j_nfail j' = j_nfail j ->
  nsb o = true -> nab o = true -> nfb o = true ->
  s1 = emit (hq_set_job s j') o -> JQ s1 s' -> JQ s s'.
Proof.
  intros Hf Hm Hk Hn O1 O2 O3 -> Q. eapply JQ_trans; [|exact Q].
  exists [o]. split; [reflexivity|]. split; [|cbn [NA forallb]; unfold NA; cbn [forallb]; rewrite O2; reflexivity].
  apply (JE_set s j j'); [exact Hf | exact Hm | exact Hk | unfold NS; cbn [forallb]; rewrite O1; reflexivity | | | reflexivity].
  - rewrite (onfailed_nf _ [o]); [lia | cbn [forallb]; rewrite O3; reflexivity].
  - intros k _. apply onfailed_nf. cbn [forallb]. rewrite O3. reflexivity.
Qed.

Lemma process_task_finished_JQ s t s' : process_task_finished s t = Ok s' -> JQ s s'.
Proof.
  unfold process_task_finished. intros H. apply bind_ok in H. destruct H as (j & Hj & H).
  destruct (get_find _ _ _ _ Hj) as [Hf Hid].
  destruct (jt_find (j_tasks j) (snd t)) as [v|] eqn:Ef; [|discriminate]. destruct v; try discriminate.
  apply bind_ok in H. destruct H as (nr & _ & H).
  eapply (JQ_set_then s j); [| | | | | | | reflexivity | eapply check_termination_JQ; exact H];
    [cbn [j_id job_upd]; rewrite Hid; exact Hf | reflexivity | cbn [j_tasks job_upd]; eapply jt_set_same_ids; exact Ef | reflexivity | reflexivity | reflexivity | reflexivity].
Qed.

Lemma set_waiting_state_JQ s t s' : set_waiting_state s t = Ok s' -> JQ s s'.
Proof.
  unfold set_waiting_state. intros H. apply bind_ok in H. destruct H as (j & Hj & H).
  destruct (get_find _ _ _ _ Hj) as [Hf Hid].
  destruct (jt_find (j_tasks j) (snd t)) as [v|] eqn:Ef; [|discriminate].
  destruct v; try (inversion H; subst; apply JQ_refl).
  apply bind_ok in H. destruct H as (nr & _ & H). inversion H; subst s'. clear H.
  exists []. rewrite app_nil_r. split; [reflexivity|]. split; [|reflexivity].
  match goal with |- JE s (hq_set_job s ?jx) _ => set (j' := jx) end.
  apply (JE_set s j j'); [cbn [j' j_id job_upd]; rewrite Hid; exact Hf | reflexivity | cbn [j' j_tasks job_upd]; eapply jt_set_same_ids; exact Ef
                         | reflexivity | cbn [j' j_nfail job_upd onfailed]; lia | intros; reflexivity | reflexivity].
Qed.

Lemma set_waiting_all_JQ ts : forall s s', set_waiting_all s ts = Ok s' -> JQ s s'.
Proof.
  induction ts as [|t r IH]; cbn [set_waiting_all]; intros s s' H; [inversion H; subst; apply JQ_refl|].
  apply bind_ok in H. destruct H as (s1 & H1 & H). eapply JQ_trans; [eapply set_waiting_state_JQ; exact H1 | eapply IH; exact H].
Qed.

Lemma JQ_emit s o : nsb o = true -> nab o = true -> nfb o = true -> JQ s (emit s o).
Proof.
  intros O1 O2 O3. exists [o]. split; [reflexivity|]. split; [|unfold NA; cbn [forallb]; rewrite O2; reflexivity].
  apply JE_same_ext; [reflexivity | cbn [forallb]; rewrite O1; reflexivity | cbn [forallb]; rewrite O3; reflexivity].
Qed.

Lemma process_worker_lost_JQ s w running reason s' : process_worker_lost s w running reason = Ok s' -> JQ s s'.
Proof.
  unfold process_worker_lost. intros H. apply bind_ok in H. destruct H as (s1 & H1 & H). inversion H; subst s'.
  eapply JQ_trans; [eapply set_waiting_all_JQ; exact H1 | apply JQ_emit; reflexivity].
Qed.

Lemma mark_tasks_frame target site ids : forall j j', mark_tasks j ids target site = Ok j' ->
  j_id j' = j_id j /\ j_maxfails j' = j_maxfails j /\ same_ids (j_tasks j) (j_tasks j') /\ j_nfail j' = j_nfail j.
Proof.
  induction ids as [|x r IH]; cbn [mark_tasks]; intros j j' H.
  - inversion H; subst. split; [reflexivity|]. split; [reflexivity|]. split; [apply same_ids_refl | reflexivity].
  - destruct (negb (N.eqb (fst x) (j_id j))); [discriminate|].
    destruct (jt_find (j_tasks j) (snd x)) as [v|] eqn:Ef; [|discriminate].
    destruct v; try discriminate.
    + destruct (IH _ _ H) as (A & B & C & D). cbn [job_set_task j_id j_maxfails j_tasks j_nfail job_upd] in *.
      split; [exact A|]. split; [exact B|]. split; [|exact D].
      eapply same_ids_trans; [eapply jt_set_same_ids; exact Ef | exact C].
    + apply bind_ok in H. destruct H as (nr & _ & H). destruct (IH _ _ H) as (A & B & C & D).
      cbn [j_id j_maxfails j_tasks j_nfail job_upd] in *.
      split; [exact A|]. split; [exact B|]. split; [|exact D].
      eapply same_ids_trans; [eapply jt_set_same_ids; exact Ef | exact C].
Qed.

Lemma abort_tasks_JE s jid ids s' :
  abort_tasks s jid ids = Ok s' ->
  exists ext, snd s' = snd s ++ ext /\ JE s s' ext /\
    ((ids = [] /\ ext = []) \/
     (ids <> [] /\ exists q, ext = OEv (EvAborted ids) :: q /\ NA q /\
        (q = [] \/ (q = [OEv (EvCompleted jid)] /\ exists j, find_job (jobs s') jid = Some j /\ j_completed j = true)))).
Proof.
  unfold abort_tasks. destruct ids as [|i0 ir] eqn:Eids.
  - intros H. inversion H; subst. exists []. rewrite app_nil_r. split; [reflexivity|]. split; [apply JE_refl | left; split; reflexivity].
  - rewrite <- Eids. intros H. apply bind_ok in H. destruct H as (j & Hj & H). apply bind_ok in H. destruct H as (j1 & Hm & H).
    destruct (get_find _ _ _ _ Hj) as [Hf Hid].
    destruct (mark_tasks_frame _ _ _ _ _ Hm) as (M1 & M2 & M3 & M4).
    destruct (check_termination_JE _ _ _ H) as (q & Eq & Jq & Aq & Sq). cbn [snd emit hq_set_job] in Eq.
    match type of H with check_termination (emit (hq_set_job s ?jx) _) _ = _ => set (j2 := jx) in * end.
    exists (OEv (EvAborted ids) :: q). split; [rewrite Eq, <- app_assoc; reflexivity|]. split.
    + change (OEv (EvAborted ids) :: q) with ([OEv (EvAborted ids)] ++ q). eapply JE_trans; [|exact Jq].
      apply (JE_set s j j2); [cbn [j2 j_id job_upd]; rewrite M1, Hid; exact Hf | exact M2 | exact M3 | reflexivity
                             | cbn [j2 j_nfail job_upd onfailed ofailed1]; rewrite M4; lia | intros; reflexivity | reflexivity].
    + right. split; [rewrite Eids; discriminate|]. exists q. split; [reflexivity|]. split; [exact Aq | exact Sq].
Qed.

Lemma set_cancel_state_JQ s jid ids s' : set_cancel_state s jid ids = Ok s' -> JQ s s'.
Proof.
  unfold set_cancel_state. destruct ids as [|i0 ir] eqn:Eids; [intros H; inversion H; subst; apply JQ_refl|].
  rewrite <- Eids. intros H. apply bind_ok in H. destruct H as (j & Hj & H). apply bind_ok in H. destruct H as (j1 & Hm & H).
  destruct (get_find _ _ _ _ Hj) as [Hf Hid].
  destruct (mark_tasks_frame _ _ _ _ _ Hm) as (M1 & M2 & M3 & M4).
  match type of H with check_termination (emit (emit (hq_set_job s ?jx) ?o1) ?o2) _ = _ =>
    eapply (JQ_set_then s j jx o1); [| | | | | | | reflexivity |
      eapply JQ_trans; [apply (JQ_emit _ o2); reflexivity | eapply check_termination_JQ; exact H]] end;
    [cbn [j_id job_upd]; rewrite M1, Hid; exact Hf | exact M2 | exact M3 | exact M4 | reflexivity | reflexivity | reflexivity].
Qed.


Lemma non_finished_job j x : In x (non_finished_task_ids j) -> fst x = j_id j.
Proof. unfold non_finished_task_ids. intros H. apply in_map_iff in H. destruct H as (kv & <- & _). reflexivity. Qed.

(** The cause of an abort event inside [ext], relative to the job layer [s] the piece started
    from: it is the abort of [aborted] immediately followed by the failure of [t], or the job's
    limit is exceeded by the failures counted so far. *)
Definition pf_cause (s : st) (t : tid) (k : failkind) (aborted : list tid) (ext : list out) : Prop :=
  forall pre ts post x, ext = pre ++ OEv (EvAborted ts) :: post -> In x ts ->
    (ts = aborted /\ exists post', post = OEv (EvFailed t k) :: post')
    \/ (exists j m, find_job (jobs s) (fst x) = Some j /\ j_maxfails j = Some m /\ m < j_nfail j + onfailed (fst x) pre).

Lemma process_task_failed_AC s t aborted k s' ids :
  HOK (hq_of s) -> process_task_failed s t aborted k = Ok (s', ids) ->
  exists ext, snd s' = snd s ++ ext /\ JE s s' ext /\ pf_cause s t k aborted ext.
Proof.
  intros Hok H. unfold process_task_failed in H.
  apply bind_ok in H. destruct H as (s1 & H1 & H).
  destruct (abort_tasks_JE _ _ _ _ H1) as (e1 & E1 & J1 & S1).
  pose proof (abort_tasks_ok _ _ _ _ Hok H1) as Hok1.
  apply bind_ok in H. destruct H as (j & Hj & H). destruct (get_find _ _ _ _ Hj) as [Hf1 Hid].
  apply bind_ok in H. destruct H as (j1 & Hj1 & H).
  (* the failing task is still active in its job after the dependents' abort *)
  assert (Hact : (jt_find (j_tasks j) (snd t) = Some JW \/ jt_find (j_tasks j) (snd t) = Some JR) /\
                 j_id j1 = j_id j /\ j_maxfails j1 = j_maxfails j /\ same_ids (j_tasks j) (j_tasks j1) /\ j_nfail j1 = j_nfail j + 1).
  { destruct (jt_find (j_tasks j) (snd t)) as [v|] eqn:Ef; [|discriminate]. destruct v; try discriminate.
    - inversion Hj1; subst j1. split; [left; reflexivity|]. cbn [j_id j_maxfails j_tasks j_nfail job_upd].
      split; [reflexivity|]. split; [reflexivity|]. split; [eapply jt_set_same_ids; exact Ef | reflexivity].
    - apply bind_ok in Hj1. destruct Hj1 as (nr & _ & Hj1). inversion Hj1; subst j1. split; [right; reflexivity|].
      cbn [j_id j_maxfails j_tasks j_nfail job_upd].
      split; [reflexivity|]. split; [reflexivity|]. split; [eapply jt_set_same_ids; exact Ef | reflexivity]. }
  destruct Hact as (Hact & I1 & I2 & I3 & I4).
  assert (K1 : e1 = [] \/ e1 = [OEv (EvAborted aborted)]).
  { destruct S1 as [[_ ->]|(_ & q1 & -> & _ & [->|(-> & jc & Hjc & Hcomp)])]; [left; reflexivity | right; reflexivity|].
    exfalso. rewrite Hf1 in Hjc. inversion Hjc; subst jc.
    pose proof (Hok1 _ (find_job_in _ _ _ Hf1)) as Hjok. destruct (jok_completed _ Hjok Hcomp) as (_ & Zw & Zr).
    destruct Hact as [Ha|Ha]; apply cnt_find_pos in Ha; lia. }
  apply bind_ok in H. destruct H as (s2 & H2 & H).
  destruct (check_termination_JE _ _ _ H2) as (q & Eq & Jq & Aq & _). cbn [snd emit hq_set_job] in Eq.
  set (M := OEv (EvFailed t k) :: q).
  assert (JM : JE s1 s2 M).
  { change M with ([OEv (EvFailed t k)] ++ q). eapply JE_trans; [|exact Jq].
    apply (JE_set s1 j j1); [rewrite I1, Hid; exact Hf1 | exact I2 | exact I3 | reflexivity | | | reflexivity].
    - cbn [onfailed ofailed1]. rewrite I1, Hid, N.eqb_refl, I4. lia.
    - intros k0 Hk0. cbn [onfailed ofailed1]. rewrite I1, Hid in Hk0.
      destruct (N.eqb (fst t) k0) eqn:E; [apply N.eqb_eq in E; congruence | reflexivity]. }
  assert (J2 : JE s s2 (e1 ++ M)) by (eapply JE_trans; eassumption).
  assert (E2 : snd s2 = snd s ++ e1 ++ M) by (rewrite Eq, E1, <- !app_assoc; reflexivity).
  assert (AM : forall ts, ~ In (OEv (EvAborted ts)) M).
  { intros ts [Hin|Hin]; [discriminate | exact (NA_in _ _ Aq Hin)]. }
  apply bind_ok in H. destruct H as (j2 & Hj2 & H). destruct (get_find _ _ _ _ Hj2) as [Hf2 Hid2].
  (* the common part: a decomposition that falls into [e1 ++ M] *)
  assert (Hhead : forall e3 pre ts post x, (e1 ++ M) ++ e3 = pre ++ OEv (EvAborted ts) :: post -> In x ts ->
            (ts = aborted /\ exists post', post = OEv (EvFailed t k) :: post') \/
            (exists m2, pre = (e1 ++ M) ++ m2 /\ e3 = m2 ++ OEv (EvAborted ts) :: post)).
  { intros e3 pre ts post x E Hx. rewrite <- app_assoc in E.
    destruct (app_decomp _ _ _ _ _ E) as [(m & Em & Ep)|(m & Em & Ep)].
    - left. destruct K1 as [-> | ->]; [destruct pre; discriminate|].
      destruct pre as [|p pre']; [|destruct pre'; discriminate]. cbn [app] in Em. inversion Em; subst. split; [reflexivity|].
      cbn [app]. eexists. reflexivity.
    - destruct (app_decomp _ _ _ _ _ Ep) as [(m' & Em' & _)|(m2 & Em2 & Ep2)].
      + exfalso. apply (AM ts). rewrite Em'. apply in_elt.
      + right. exists m2. split; [rewrite Em, Em2, app_assoc; reflexivity | exact Ep2]. }
  assert (Hnone : s' = s2 -> exists ext, snd s' = snd s ++ ext /\ JE s s' ext /\ pf_cause s t k aborted ext).
  { intros ->. exists (e1 ++ M). split; [exact E2|]. split; [exact J2|].
    intros pre ts post x E Hx. rewrite <- (app_nil_r (e1 ++ M)) in E.
    destruct (Hhead [] pre ts post x E Hx) as [A|(m2 & _ & Em2)]; [left; exact A | destruct m2; discriminate]. }
  destruct (j_maxfails j2) as [mf|] eqn:Emf; [|inversion H; subst; apply Hnone; reflexivity].
  destruct (N.ltb mf (j_nfail j2)) eqn:Elt; [|inversion H; subst; apply Hnone; reflexivity].
  clear Hnone. apply N.ltb_lt in Elt.
  apply bind_ok in H. destruct H as (s3 & H3 & H). inversion H; subst s' ids. clear H.
  destruct (abort_tasks_JE _ _ _ _ H3) as (e3 & E3 & J3 & S3).
  exists ((e1 ++ M) ++ e3). split; [rewrite E3, E2, <- !app_assoc; reflexivity|]. split; [eapply JE_trans; eassumption|].
  intros pre ts post x E Hx.
  destruct (Hhead e3 pre ts post x E Hx) as [A|(m2 & Epre & Em2)]; [left; exact A|]. right.
  destruct S3 as [[_ ->]|(_ & q3 & -> & Aq3 & _)]; [destruct m2; discriminate|].
  destruct m2 as [|y m2'].
  - cbn [app] in Em2. inversion Em2; subst ts post. rewrite app_nil_r in Epre. subst pre.
    rewrite (non_finished_job _ _ Hx), Hid2.
    destruct (je_old _ _ _ J2 _ _ Hf2) as (j0 & Hf0 & Hm0 & _ & Hn0).
    exists j0, mf. split; [exact Hf0|]. split; [congruence | lia].
  - exfalso. cbn [app] in Em2. inversion Em2. apply (NA_in _ ts Aq3). match goal with X : q3 = _ |- _ => rewrite X end. apply in_elt.
Qed.

Print Assumptions process_task_failed_AC.
