(** C14 / C03, "tasks are aborted only with a cause": the monitor as a specification.

    [Monitors.abort_justified deps limits fails dead tr] walks over the item list.  This file
    (pure list reasoning, no system model) gives
    - one-step equations of the monitor ([aj_*]) with its local lookups made global ([lget],
      [aj_ok], [fail_upd], [peek]);
    - the accumulators a stretch of items leaves behind: [jdeps] (DepOrderJournal) for the raw
      dependency entries, [afails] for the per-job failure counts, with [fcount_afails]:
      count after = count before + number of [EvFailed] items of the job ([infailed]);
    - the CLEAN PROP FORM [ispec]: for every decomposition [tr = pre ++ IEv (EvAborted ts) :: post]
      and every [t] in [ts], (a) the entry the monitor finds for [t] after [pre] has a dependency
      [d] that is aborted in the same event or fails in the very next item, or (b) the job of [t]
      has a limit [lim] and more than [lim] failures of the job were counted in [pre];
    - [aj_sound]: [ispec] implies that the monitor answers [true] - whatever its [dead] list is
      (the monitor's [dead] accumulator only adds further admissible causes);
    - how the items of one step decompose ([flat_map_decomp]);
    - transitive consumers have a cause ([recursive_consumers_cause]): every task collected by
      [Task::collect_recursive_consumers] is a consumer of the root or of another collected task. *)
From HQ Require Import Base.Prelude Cluster.Types Cluster.Core Cluster.Reactor Cluster.Worker Cluster.Server Cluster.Sys Cluster.Monitors Cluster.BijBase Cluster.BijCore Cluster.InvDBase Cluster.InvDRem Cluster.StartFinBase Cluster.DepOrderJournal.
From HQ Require Import Cluster.ModelFacts.
From Coq Require Import ZArith Lia.
Local Open Scope N_scope.

Arguments N.add : simpl never.
Arguments N.sub : simpl never.

Definition lget (l : list (N * N)) (j : N) : option N :=
  match find (fun kv => N.eqb (fst kv) j) l with Some kv => Some (snd kv) | None => None end.
Definition fcount (F : list (N * N)) (j : N) : N := match lget F j with Some n => n | None => 0 end.
Definition dfind (D : list (tid * list tid)) (t : tid) : option (list tid) :=
  match find (fun x => tid_eqb (fst x) t) D with Some (_, ds) => Some ds | None => None end.

Definition peek (r : list item) (dead : list tid) : list tid :=
  match r with IEv (EvFailed t0 _) :: _ => t0 :: dead | _ => dead end.
Definition aj_ok (D : list (tid * list tid)) (L F : list (N * N)) (dead ts : list tid) (t : tid) : bool :=
  match find (fun x => tid_eqb (fst x) t) D with
  | Some (_, ds) => existsb (fun d => tid_mem d dead || tid_mem d ts) ds
  | None => false
  end
  || match lget L (fst t), lget F (fst t) with
     | Some lim, Some n => N.ltb lim n
     | _, _ => false
     end.
Definition fail_upd (F : list (N * N)) (t : tid) : list (N * N) :=
  (fst t, match lget F (fst t) with Some n => n + 1 | None => 1 end) :: filter (fun kv => negb (N.eqb (fst kv) (fst t))) F.

Lemma aj_nil D L F Dd : abort_justified D L F Dd [] = true.
Proof. reflexivity. Qed.
Lemma aj_submitted D L F Dd j ts r :
  abort_justified D L F Dd (ISubmitted j ts :: r) = abort_justified (sub_edges j ts ++ D) L F Dd r.
Proof. reflexivity. Qed.
Lemma aj_failed D L F Dd t k r :
  abort_justified D L F Dd (IEv (EvFailed t k) :: r) = abort_justified D L (fail_upd F t) (t :: Dd) r.
Proof. reflexivity. Qed.
Lemma aj_aborted D L F Dd ts r :
  abort_justified D L F Dd (IEv (EvAborted ts) :: r)
  = forallb (aj_ok D L F (peek r Dd) ts) ts && abort_justified D L F (ts ++ peek r Dd) r.
Proof. reflexivity. Qed.
Lemma aj_canceled D L F Dd ts r :
  abort_justified D L F Dd (IEv (EvCanceled ts) :: r) = abort_justified D L F (ts ++ Dd) r.
Proof. reflexivity. Qed.

Definition ifail_upd (F : list (N * N)) (i : item) : list (N * N) :=
  match i with IEv (EvFailed t _) => fail_upd F t | _ => F end.
Fixpoint afails (F : list (N * N)) (tr : list item) : list (N * N) :=
  match tr with [] => F | i :: r => afails (ifail_upd F i) r end.

Definition ifailed1 (k : N) (i : item) : N :=
  match i with IEv (EvFailed t _) => if N.eqb (fst t) k then 1 else 0 | _ => 0 end.
Fixpoint infailed (k : N) (tr : list item) : N :=
  match tr with [] => 0 | i :: r => ifailed1 k i + infailed k r end.

Lemma find_filter_other (F : list (N * N)) j k : N.eqb j k = false ->
  find (fun kv => N.eqb (fst kv) k) (filter (fun kv => negb (N.eqb (fst kv) j)) F) = find (fun kv => N.eqb (fst kv) k) F.
Proof.
  intros Hne. induction F as [|[a b] r IH]; [reflexivity|]. cbn [filter find fst].
  destruct (N.eqb a j) eqn:Ea; cbn [negb].
  - apply N.eqb_eq in Ea. subst a. rewrite Hne. exact IH.
  - cbn [find fst]. destruct (N.eqb a k); [reflexivity | exact IH].
Qed.

Lemma lget_fail_upd F t k :
  lget (fail_upd F t) k = if N.eqb (fst t) k then Some (fcount F (fst t) + 1) else lget F k.
Proof.
  unfold fail_upd, lget at 1. cbn [find fst]. destruct (N.eqb (fst t) k) eqn:E.
  - cbn [snd]. unfold fcount. destruct (lget F (fst t)); [reflexivity|]. f_equal.
  - rewrite (find_filter_other F _ _ E). reflexivity.
Qed.

Lemma fcount_fail_upd F t k : fcount (fail_upd F t) k = fcount F k + (if N.eqb (fst t) k then 1 else 0).
Proof.
  unfold fcount at 1. rewrite lget_fail_upd. destruct (N.eqb (fst t) k) eqn:E.
  - apply N.eqb_eq in E. subst k. reflexivity.
  - fold (fcount F k). lia.
Qed.

Lemma fcount_afails tr : forall F k, fcount (afails F tr) k = fcount F k + infailed k tr.
Proof.
  induction tr as [|i r IH]; intros F k; cbn [afails infailed]; [lia|].
  rewrite IH. destruct i as [e| | | | | | | |]; cbn [ifail_upd ifailed1]; try lia.
  destruct e; cbn [ifail_upd ifailed1]; try lia. rewrite fcount_fail_upd. lia.
Qed.

Lemma afails_app a : forall F b, afails F (a ++ b) = afails (afails F a) b.
Proof. induction a as [|i r IH]; intros F b; [reflexivity|]. cbn [app afails]. apply IH. Qed.
Lemma infailed_app k a : forall b, infailed k (a ++ b) = infailed k a + infailed k b.
Proof. induction a as [|i r IH]; intros b; cbn [app infailed]; [lia | rewrite IH; lia]. Qed.

Definition ispec (L : list (N * N)) (D : list (tid * list tid)) (F : list (N * N)) (tr : list item) : Prop :=
  forall pre ts post, tr = pre ++ IEv (EvAborted ts) :: post -> forall t, In t ts ->
    (exists ds d, dfind (jdeps D pre) t = Some ds /\ In d ds /\ (In d ts \/ exists k r, post = IEv (EvFailed d k) :: r))
    \/ (exists lim, lget L (fst t) = Some lim /\ lim < fcount (afails F pre) (fst t)).

Lemma ispec_tail L D F i r : ispec L D F (i :: r) -> ispec L (jdeps D [i]) (ifail_upd F i) r.
Proof.
  intros H pre ts post E t Ht.
  destruct (H (i :: pre) ts post (f_equal (cons i) E) t Ht) as [(ds & d & A & B & C)|(lim & A & B)].
  - left. exists ds, d. split; [|split; assumption].
    replace (jdeps (jdeps D [i]) pre) with (jdeps D (i :: pre)); [exact A|].
    destruct i; reflexivity.
  - right. exists lim. split; [exact A | exact B].
Qed.

Lemma aj_ok_intro L D F Dd r ts t :
  (exists ds d, dfind D t = Some ds /\ In d ds /\ (In d ts \/ exists k r', r = IEv (EvFailed d k) :: r'))
  \/ (exists lim, lget L (fst t) = Some lim /\ lim < fcount F (fst t)) ->
  aj_ok D L F (peek r Dd) ts t = true.
Proof.
  intros [(ds & d & A & B & C)|(lim & A & B)]; unfold aj_ok; apply orb_true_iff.
  - left. unfold dfind in A. destruct (find (fun x => tid_eqb (fst x) t) D) as [[x ds0]|]; [|discriminate].
    inversion A; subst ds0. apply existsb_exists. exists d. split; [exact B|]. apply orb_true_iff.
    destruct C as [C|(k & r' & ->)]; [right; apply tid_mem_In; exact C|].
    left. cbn [peek]. apply tid_mem_In. left; reflexivity.
  - right. rewrite A. unfold fcount in B. destruct (lget F (fst t)) as [n|]; [apply N.ltb_lt; exact B | lia].
Qed.

Theorem aj_sound L tr : forall D F Dd, ispec L D F tr -> abort_justified D L F Dd tr = true.
Proof.
  induction tr as [|i r IH]; intros D F Dd H; [reflexivity|].
  pose proof (ispec_tail _ _ _ _ _ H) as Ht.
  destruct i as [e|l|j ids|w fl|w ts|w ts|w ts|w t|j ts]; try (cbn [abort_justified]; apply IH; exact Ht).
  - destruct e;
      try match goal with |- abort_justified _ _ _ _ (IEv (EvAborted _) :: _) = true => idtac
          | _ => cbn [abort_justified]; apply IH; exact Ht end.
    rewrite aj_aborted. apply andb_true_iff. split; [|apply IH; exact Ht].
    apply forallb_forall. intros t Hin. apply aj_ok_intro.
    destruct (H [] ts r eq_refl t Hin) as [A|A]; [left | right]; exact A.
Qed.

Lemma flat_map_decomp {A B} (f : A -> list B) (l : list A) :
  (forall x, f x = [] \/ exists i, f x = [i]) ->
  forall ipre i ipost, flat_map f l = ipre ++ i :: ipost ->
  exists pre x post, l = pre ++ x :: post /\ f x = [i] /\ flat_map f pre = ipre /\ flat_map f post = ipost.
Proof.
  intros Hf. induction l as [|a r IH]; intros ipre i ipost E; [destruct ipre; discriminate|].
  cbn [flat_map] in E. destruct (Hf a) as [Ha|(i0 & Ha)]; rewrite Ha in E; cbn [app] in E.
  - destruct (IH _ _ _ E) as (pre & x & post & E1 & E2 & E3 & E4).
    exists (a :: pre), x, post. split; [rewrite E1; reflexivity|]. split; [exact E2|]. split; [cbn [flat_map]; rewrite Ha, E3; reflexivity | exact E4].
  - destruct ipre as [|p ipre'].
    + cbn [app] in E. inversion E; subst i0 ipost. exists [], a, r. split; [reflexivity|]. split; [exact Ha|]. split; reflexivity.
    + cbn [app] in E. inversion E; subst p. destruct (IH _ _ _ H1) as (pre & x & post & E1 & E2 & E3 & E4).
      exists (a :: pre), x, post. split; [rewrite E1; reflexivity|]. split; [exact E2|]. split; [cbn [flat_map]; rewrite Ha, E3; reflexivity | exact E4].
Qed.

Definition ccause (ts : list task) (base acc : list tid) : Prop :=
  forall x, In x acc -> In x base \/ exists y ty, In y acc /\ find_task ts y = Some ty /\ In x (t_consumers ty).

Lemma ccause_mono ts base acc acc' : (forall x, In x acc -> In x acc') -> ccause ts base acc ->
  forall x, In x acc -> In x base \/ exists y ty, In y acc' /\ find_task ts y = Some ty /\ In x (t_consumers ty).
Proof.
  intros Hi H x Hx. destruct (H x Hx) as [A|(y & ty & A & B & C)]; [left; exact A|].
  right. exists y, ty. split; [apply Hi; exact A | split; assumption].
Qed.

Lemma collect_cause fuel : forall ts base frontier acc r,
  (forall x, In x frontier -> In x acc) -> ccause ts base acc ->
  collect_consumers fuel ts frontier acc = Ok r -> ccause ts base r.
Proof.
  induction fuel as [|k IH]; intros ts base frontier acc r Hfr Hc H.
  - destruct frontier; cbn [collect_consumers] in H; inversion H; subst; exact Hc.
  - destruct frontier as [|id rest]; cbn [collect_consumers] in H; [inversion H; subst; exact Hc|].
    apply bind_ok in H. destruct H as (t & Ht & H). apply get_task_find in Ht.
    set (new := filter (fun c => negb (tid_mem c acc)) (t_consumers t)) in *.
    eapply IH; [| |exact H].
    + intros x Hx. apply tid_insert_all_iff. apply in_app_iff in Hx. destruct Hx as [Hx|Hx]; [right; apply Hfr; right; exact Hx | left; exact Hx].
    + intros x Hx. apply tid_insert_all_iff in Hx. destruct Hx as [Hx|Hx].
      * right. exists id, t. split; [apply tid_insert_all_iff; right; apply Hfr; left; reflexivity|]. split; [exact Ht|].
        unfold new in Hx. apply filter_In in Hx. apply Hx.
      * apply (ccause_mono ts base acc); [|exact Hc | exact Hx]. intros y Hy. apply tid_insert_all_iff. right; exact Hy.
Qed.

Lemma recursive_consumers_cause ts t csm :
  recursive_consumers ts t = Ok csm ->
  forall x, In x csm -> In x (t_consumers t) \/ exists y ty, In y csm /\ find_task ts y = Some ty /\ In x (t_consumers ty).
Proof.
  intros H. unfold recursive_consumers in H.
  apply (collect_cause _ ts (t_consumers t) _ _ csm) in H; [exact H | |].
  - intros x Hx. apply tid_insert_all_iff. left; exact Hx.
  - intros x Hx. apply tid_insert_all_iff in Hx. destruct Hx as [Hx|[]]. left; exact Hx.
Qed.

Print Assumptions aj_sound.
