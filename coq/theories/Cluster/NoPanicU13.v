(** Protocol invariant, part 13 (Stage 3, consistency assertions): when the server processes a
    message of a worker in a state satisfying [PROTO], none of the assertions that compare the
    message with the server's view of the task can fire:
      165 166 167 170 (task_failed), 172 173 (task_finished), 175 176 177 178 (task_running),
      179 (task_reject), 202 (the job layer: finished task not shown Running). *)
From HQ Require Import Base.Prelude Cluster.Types Cluster.Core Cluster.Reactor Cluster.Worker Cluster.Server Cluster.Sys Cluster.ProofsJob Cluster.ProofsMore Cluster.ProofsTerminal Cluster.ProofsStep Cluster.BijBase Cluster.BijCore Cluster.BijHq Cluster.BijSt Cluster.BijReact Cluster.RejHyp Cluster.NoPanicU0 Cluster.NoPanicU1 Cluster.NoPanicU2 Cluster.NoPanicU6 Cluster.NoPanicU7 Cluster.NoPanicU8 Cluster.NoPanicU9 Cluster.NoPanicU10 Cluster.NoPanicU11.
From Coq Require Import ZArith Lia Sorting.Sorted.
Local Open Scope N_scope.

Definition cons_sites : list N := [165; 166; 167; 170; 172; 173; 175; 176; 177; 178; 179; 202].
Definition nocons (n : N) : Prop := n_mem n cons_sites = false.

(** Decompose [H : <computation> = Panic n] along binds and case distinctions; the sub-calls that
    panicked are left as hypotheses [_ = Panic _] for the site lemmas, leaves are decided. *)
Ltac pstep H :=
  match type of H with
  | bind ?r _ = Panic _ =>
      let E := fresh "E" in destruct r eqn:E; cbn [bind] in H; [ | discriminate H | inversion H; subst; clear H ]
  | Ok _ = Panic _ => discriminate H
  | Disabled = Panic _ => discriminate H
  | Panic _ = Panic _ => inversion H; subst; clear H
  | (let '(_, _) := ?x in _) = Panic _ => destruct x
  | (if ?b then _ else _) = Panic _ => destruct b eqn:?
  | match ?x with _ => _ end = Panic _ => destruct x eqn:?
  end.
Ltac psteps H :=
  repeat (pstep H);
  repeat match goal with
         | X : bind _ _ = Panic _ |- _ => pstep X
         | X : Ok _ = Panic _ |- _ => discriminate X
         | X : Disabled = Panic _ |- _ => discriminate X
         | X : Panic _ = Panic _ |- _ => inversion X; subst; clear X
         | X : (let '(_, _) := _ in _) = Panic _ |- _ => pstep X
         | X : (if _ then _ else _) = Panic _ |- _ => pstep X
         | X : match _ with _ => _ end = Panic _ |- _ => pstep X
         end.
Ltac nc := solve [ reflexivity | eauto ].

Lemma csub_nc a b site n : csub a b site = Panic n -> n = site.
Proof. unfold csub. destruct (N.ltb a b); intros H; inversion H; reflexivity. Qed.
Lemma get_rq_nc rqs rq n : get_rq rqs rq = Panic n -> nocons n.
Proof. unfold get_rq. intros H. psteps H. nc. Qed.
Lemma get_worker_nc ws w n : get_worker ws w = Panic n -> nocons n.
Proof. unfold get_worker. intros H. psteps H. nc. Qed.
Lemma get_task_nc ts x n : get_task ts x = Panic n -> nocons n.
Proof. unfold get_task. intros H. psteps H. nc. Qed.
Lemma remove_sn_task_nc wk id rq n : remove_sn_task wk id rq = Panic n -> nocons n.
Proof. unfold remove_sn_task. intros H. psteps H; nc. Qed.
Lemma insert_sn_task_nc wk id rq n : insert_sn_task wk id rq = Panic n -> nocons n.
Proof. unfold insert_sn_task. intros H. psteps H; nc. Qed.
Lemma remove_prefill_task_nc wk id n : remove_prefill_task wk id = Panic n -> nocons n.
Proof. unfold remove_prefill_task. intros H. psteps H; nc. Qed.
Lemma tfpts_nc wk id rq n : task_from_prefilled_to_started wk id rq = Panic n -> nocons n.
Proof. unfold task_from_prefilled_to_started. intros H. psteps H; nc. Qed.
Lemma nth_queue_nc qs : forall i n, nth_queue qs i = Panic n -> nocons n.
Proof. induction qs as [|q r IH]; intros i n H; cbn [nth_queue] in H; [inversion H; nc|]. destruct i; [discriminate | eapply IH; exact H]. Qed.
Lemma qe_remove_nc es id p : forall n, qe_remove es id p = Panic n -> nocons n.
Proof.
  induction es as [|e r IH]; intros n H; cbn [qe_remove] in H; [discriminate|].
  destruct (Z.eqb (qe_prio e) p).
  - destruct (qe_more e); [destruct (tid_remove id (qe_ids e)); discriminate|]. destruct (tid_mem id (qe_ids e)); [discriminate | inversion H; nc].
  - destruct (qe_remove r id p) eqn:E; cbn [bind] in H; [discriminate | discriminate | inversion H; subst; eapply IH; reflexivity].
Qed.
Lemma q_remove_nc q id p n : q_remove q id p = Panic n -> nocons n.
Proof.
  unfold q_remove. intros H. destruct (q_prefill q) as [[pp ts]|].
  - destruct (Z.eqb p pp && tid_mem id ts); [discriminate|]. destruct (qe_remove (q_ready q) id p) eqn:E; cbn [bind] in H; try discriminate. inversion H; subst. eapply qe_remove_nc; exact E.
  - destruct (qe_remove (q_ready q) id p) eqn:E; cbn [bind] in H; try discriminate. inversion H; subst. eapply qe_remove_nc; exact E.
Qed.
Lemma q_remove_prefilled_nc q id n : q_remove_prefilled q id = Panic n -> nocons n.
Proof. unfold q_remove_prefilled. intros H. psteps H; nc. Qed.
Lemma add_ready_task_nc qs t n : add_ready_task qs t = Panic n -> nocons n.
Proof. unfold add_ready_task. intros H. destruct (dispose_all qs (t_prio t)) as [qs1 ret]. psteps H. eapply nth_queue_nc; eassumption. Qed.

Lemma try_remove_redirection_nc c t n : try_remove_redirection c t = Panic n -> nocons n.
Proof.
  unfold try_remove_redirection. intros H. psteps H;
    first [ eapply get_worker_nc; eassumption | eapply get_rq_nc; eassumption | eapply remove_sn_task_nc; eassumption
          | eapply nth_queue_nc; eassumption | eapply q_remove_nc; eassumption ].
Qed.
Lemma reset_mn_workers_nc ws : forall c id n, reset_mn_workers c ws id = Panic n -> nocons n.
Proof.
  induction ws as [|w r IH]; intros c id n H; cbn [reset_mn_workers] in H; [discriminate|].
  psteps H; first [ eapply get_worker_nc; eassumption | nc | eapply IH; eassumption ].
Qed.
Lemma reset_mn_all_nc ws : forall c n, reset_mn_all c ws = Panic n -> nocons n.
Proof.
  induction ws as [|w r IH]; intros c n H; cbn [reset_mn_all] in H; [discriminate|].
  psteps H; first [ eapply get_worker_nc; eassumption | eapply IH; eassumption ].
Qed.

Lemma send_worker_nc s w m n : send_worker s w m = Panic n -> nocons n.
Proof. unfold send_worker. intros H. psteps H. nc. Qed.
Lemma send_all_nc msgs : forall s n, send_all s msgs = Panic n -> nocons n.
Proof.
  induction msgs as [|[w m] r IH]; intros s n H; cbn [send_all] in H; [discriminate|].
  psteps H; first [ eapply send_worker_nc; eassumption | eapply IH; eassumption ].
Qed.
Lemma retract_states_nc ids : forall c acc n, retract_states c ids acc = Panic n -> nocons n.
Proof.
  induction ids as [|id r IH]; intros c acc n H; cbn [retract_states] in H; [discriminate|].
  psteps H; first [ eapply get_task_nc; eassumption | eapply get_worker_nc; eassumption | eapply remove_prefill_task_nc; eassumption
                  | nc | eapply IH; eassumption ].
Qed.
Lemma process_retracted_nc s ret n : process_retracted s ret = Panic n -> nocons n.
Proof.
  unfold process_retracted. intros H. destruct ret; [discriminate|].
  psteps H; first [ eapply retract_states_nc; eassumption | eapply send_all_nc; eassumption ].
Qed.

Lemma n_waiting_nc j n : n_waiting j = Panic n -> nocons n.
Proof. unfold n_waiting. intros H. psteps H; match goal with X : csub _ _ _ = Panic _ |- _ => apply csub_nc in X; subst; nc end. Qed.
Lemma check_termination_nc s jid n : check_termination s jid = Panic n -> nocons n.
Proof.
  unfold check_termination, hq_get_job, has_no_active_tasks. intros H.
  psteps H; first [ nc | eapply n_waiting_nc; eassumption ].
Qed.
Lemma process_task_started_nc s t i ws rv n : process_task_started s t i ws rv = Panic n -> nocons n.
Proof. unfold process_task_started, hq_get_job. intros H. psteps H; nc. Qed.

Lemma rcf_nc deps : forall ts cid n, remove_consumer_from ts deps cid = Panic n -> nocons n.
Proof.
  induction deps as [|d r IH]; intros ts cid n H; cbn [remove_consumer_from] in H; [discriminate|].
  psteps H; first [ nc | eapply IH; eassumption ].
Qed.
Lemma remove_task_nc c id n : remove_task c id = Panic n -> nocons n.
Proof.
  unfold remove_task. intros H.
  psteps H; first [ nc | eapply nth_queue_nc; eassumption | eapply q_remove_nc; eassumption | eapply rcf_nc; eassumption ].
Qed.
Lemma wake_consumers_nc csm : forall c ret n, wake_consumers c csm ret = Panic n -> nocons n.
Proof.
  induction csm as [|x r IH]; intros c ret n H; cbn [wake_consumers] in H; [discriminate|].
  psteps H; first [ nc | eapply get_task_nc; eassumption | eapply add_ready_task_nc; eassumption | eapply IH; eassumption ].
Qed.
Lemma collect_consumers_nc fuel : forall ts fr acc n, collect_consumers fuel ts fr acc = Panic n -> nocons n.
Proof.
  induction fuel as [|k IH]; intros ts fr acc n H; destruct fr as [|id rest]; cbn [collect_consumers] in H; try discriminate.
  psteps H; first [ eapply get_task_nc; eassumption | eapply IH; eassumption ].
Qed.
Lemma recursive_consumers_nc ts t n : recursive_consumers ts t = Panic n -> nocons n.
Proof. unfold recursive_consumers. apply collect_consumers_nc. Qed.
Lemma remove_waiting_consumers_nc l : forall c n, remove_waiting_consumers c l = Panic n -> nocons n.
Proof.
  induction l as [|x r IH]; intros c n H; cbn [remove_waiting_consumers] in H; [discriminate|].
  psteps H; first [ nc | eapply remove_task_nc; eassumption | eapply IH; eassumption ].
Qed.
Lemma remove_tasks_batched_nc l : forall c n, remove_tasks_batched c l = Panic n -> nocons n.
Proof.
  induction l as [|x r IH]; intros c n H; cbn [remove_tasks_batched] in H; [discriminate|].
  psteps H; first [ eapply remove_task_nc; eassumption | eapply IH; eassumption ].
Qed.
Lemma mark_tasks_nc target site (Hs : nocons site) ids : forall j n, mark_tasks j ids target site = Panic n -> nocons n.
Proof.
  induction ids as [|t r IH]; intros j n H; cbn [mark_tasks] in H; [discriminate|].
  psteps H; first [ nc | match goal with X : csub _ _ _ = Panic _ |- _ => apply csub_nc in X; subst; nc end | eapply IH; eassumption ].
Qed.
Lemma abort_tasks_nc s jid ids n : abort_tasks s jid ids = Panic n -> nocons n.
Proof.
  unfold abort_tasks, hq_get_job. intros H. destruct ids; [discriminate|].
  psteps H; first [ nc | eapply (mark_tasks_nc JA 206); [reflexivity | eassumption] | eapply check_termination_nc; eassumption ].
Qed.
Lemma process_task_failed_nc s t ab k n : process_task_failed s t ab k = Panic n -> nocons n.
Proof.
  unfold process_task_failed, hq_get_job. intros H.
  psteps H; first [ nc | eapply abort_tasks_nc; eassumption | eapply check_termination_nc; eassumption
                  | match goal with X : csub _ _ _ = Panic _ |- _ => apply csub_nc in X; subst; nc end ].
Qed.
Lemma cancel_release_nc ids : forall s tu ru n, cancel_release s ids tu ru = Panic n -> nocons n.
Proof.
  induction ids as [|id r IH]; intros s tu ru n H; cbn [cancel_release] in H; [discriminate|].
  psteps H; first [ nc | eapply recursive_consumers_nc; eassumption | eapply get_rq_nc; eassumption | eapply get_worker_nc; eassumption
                  | eapply remove_sn_task_nc; eassumption | eapply reset_mn_all_nc; eassumption | eapply try_remove_redirection_nc; eassumption
                  | eapply nth_queue_nc; eassumption | eapply q_remove_prefilled_nc; eassumption | eapply remove_prefill_task_nc; eassumption
                  | eapply IH; eassumption ].
Qed.
Lemma on_cancel_tasks_nc s ids n : on_cancel_tasks s ids = Panic n -> nocons n.
Proof.
  unfold on_cancel_tasks. intros H.
  psteps H; first [ eapply cancel_release_nc; eassumption | eapply remove_tasks_batched_nc; eassumption | eapply send_all_nc; eassumption ].
Qed.
Lemma ctasks_of_nc c l : forall n, ctasks_of c l = Panic n -> nocons n.
Proof.
  induction l as [|[id rv] r IH]; intros n H; cbn [ctasks_of] in H; [discriminate|].
  psteps H; first [ eapply get_task_nc; eassumption | eapply IH; reflexivity ].
Qed.
Lemma send_redirected_nc gs : forall s n, send_redirected s gs = Panic n -> nocons n.
Proof.
  induction gs as [|[tg ts] r IH]; intros s n H; cbn [send_redirected] in H; [discriminate|].
  psteps H; first [ eapply ctasks_of_nc; eassumption | eapply send_worker_nc; eassumption | eapply IH; eassumption ].
Qed.
Lemma on_retract_response_nc s w ids n : on_retract_response s w ids = Panic n -> nocons n.
Proof.
  unfold on_retract_response. intros H. destruct (retract_response_states _ _ _ _) as [c' groups].
  destruct (send_redirected _ groups) as [s2| |n2] eqn:E2; cbn [bind] in H; [|discriminate|].
  - destruct (retract_wakes _ _ _ _); discriminate.
  - inversion H; subst n2. eapply send_redirected_nc; exact E2.
Qed.
Lemma request_enabled_nc s w rq rv n : request_enabled s w rq rv = Panic n -> nocons n.
Proof. unfold request_enabled. intros H. psteps H. eapply get_worker_nc; eassumption. Qed.

Ltac sub_nc :=
  first [ nc | eapply get_rq_nc; eassumption | eapply get_worker_nc; eassumption | eapply get_task_nc; eassumption
        | eapply remove_sn_task_nc; eassumption | eapply insert_sn_task_nc; eassumption | eapply remove_prefill_task_nc; eassumption
        | eapply tfpts_nc; eassumption | eapply nth_queue_nc; eassumption | eapply q_remove_nc; eassumption
        | eapply q_remove_prefilled_nc; eassumption | eapply add_ready_task_nc; eassumption
        | eapply try_remove_redirection_nc; eassumption | eapply reset_mn_workers_nc; eassumption
        | eapply process_retracted_nc; eassumption | eapply process_task_started_nc; eassumption
        | eapply wake_consumers_nc; eassumption | eapply remove_task_nc; eassumption | eapply send_worker_nc; eassumption
        | eapply recursive_consumers_nc; eassumption | eapply remove_waiting_consumers_nc; eassumption
        | eapply process_task_failed_nc; eassumption | eapply on_cancel_tasks_nc; eassumption ].

Lemma task_running_cons s w id rv u r n :
  SP x0 s (pum_us w (u :: r)) [] -> (u = URunning id rv \/ u = URunningPrefilled id rv) ->
  task_running s w id rv = Panic n -> nocons n.
Proof.
  intros HS Hu H. unfold task_running in H. cbv zeta in H.
  destruct (find_task (c_tasks (core_of s)) id) as [t|] eqn:Ef; [|discriminate].
  destruct (pum_us_proc _ _ _ _ _ HS) as (p & Hp).
  pose proof (head_item _ _ _ _ _ _ _ _ _ HS Ef eq_refl Hp) as Hl.
  assert (Hv : exists b, lang (view_of (t_state t) w (job_running (hq_of s) id)) (IRun b rv :: uitems id (pum_us w r w ++ p_up p)) (local p id)
                              (ditems id (p_down p ++ msgs_for w [])) = true).
  { destruct Hu as [->| ->]; cbn [uitem_of] in Hl; rewrite sel_same in Hl; eexists; exact Hl. }
  destruct Hv as (b & Hv). destruct (LS_run _ _ _ _ _ _ Hv) as [Hcase _]. clear Hl Hv.
  (* 175 - 178: the view of [w] names the state of the task, with [w] as its worker and [rv] as its variant *)
  destruct Hcase as [[Ev _]|[[Ev _]|[[Ev _]|[Ev _]]]];
    [apply view_VA in Ev | apply view_VP in Ev | apply view_VT in Ev | apply view_VM in Ev; destruct Ev as (_ & ws & Ev)];
    rewrite Ev in H; cbn [negb] in H; rewrite !N.eqb_refl in H; cbn [negb] in H; psteps H; sub_nc.
Qed.

Lemma process_task_finished_cons s id n : jv (hq_of s) id = Some (Some JR) -> process_task_finished s id = Panic n -> nocons n.
Proof.
  intros Hj H. unfold process_task_finished, hq_get_job in H. unfold jv in Hj. change (hq_of s) with (s_hq (fst s)) in Hj.
  destruct (find_job (h_jobs (s_hq (fst s))) (fst id)) as [j|]; [|discriminate]. cbn [bind] in H.
  inversion Hj as [Hj']. rewrite Hj' in H.
  psteps H; first [ nc | match goal with X : csub _ _ _ = Panic _ |- _ => apply csub_nc in X; subst; nc end | eapply check_termination_nc; eassumption ].
Qed.

Lemma task_finished_cons s w id r n :
  SP x0 s (pum_us w (UFinished id :: r)) [] -> task_finished s w id = Panic n -> nocons n.
Proof.
  intros HS H. unfold task_finished in H. cbv zeta in H.
  destruct (find_task (c_tasks (core_of s)) id) as [t|] eqn:Ef; [|discriminate].
  destruct (finished_head _ _ _ _ _ HS Ef) as [R Hst].
  assert (Hjr : jv (hq_of s) id = Some (Some JR)).
  { rewrite job_running_jv in R. destruct (sp_act _ _ _ _ HS _ _ Ef eq_refl) as [A|A]; rewrite A in *; [discriminate | reflexivity]. }
  (* 172, 173: the task runs on [w]; 202: the job layer shows it Running *)
  destruct Hst as [(rv & Est)|(ws & Est)]; rewrite Est in H; cbn [negb] in H; rewrite N.eqb_refl in H; cbn [negb] in H;
    psteps H; first [ eapply process_task_finished_cons; [|eassumption]; exact Hjr | sub_nc ].
Qed.

Lemma task_reject_cons s w id rv0 r n :
  SP x0 s (pum_us w (UReject id rv0 :: r)) [] -> task_reject s w id rv0 = Panic n -> nocons n.
Proof.
  intros HS H. unfold task_reject in H. cbv zeta in H.
  destruct (find_task (c_tasks (core_of s)) id) as [t|] eqn:Ef; [|discriminate].
  destruct (reject_head _ _ _ _ _ _ _ _ HS Ef eq_refl) as (rv & -> & Ev). rewrite Ev in H.
  psteps H; sub_nc.
Qed.

Lemma get_rq_nth rqs i r : get_rq rqs i = Ok r -> nth_error rqs (N.to_nat i) = Some r.
Proof. unfold get_rq. destruct (nth_error rqs (N.to_nat i)); intros H; inversion H; reflexivity. Qed.

(** A worker reports a failure only for a task that the server sees placed on it. *)
Lemma view_placed st w jr : view_of st w jr <> VN ->
  match st with
  | Assigned w1 _ | Prefilled w1 | Retracting w1 | Running w1 _ => w1 = w
  | RunningMN (w0 :: _) => w0 = w
  | _ => False
  end.
Proof.
  destruct st as [n|w1 rv1|w1|w1|w1 rv1|[|w1 ws]|]; cbn [view_of]; intros H; try (exfalso; apply H; reflexivity);
    (destruct (N.eqb w1 w) eqn:E; [apply N.eqb_eq; exact E | exfalso; apply H; reflexivity]).
Qed.

(** 165 166 167: the task is placed on [w], as a multi-node task exactly if its request class is one *)
Lemma failed_release_cons c w id rq t jr n :
  view_of (t_state t) w jr <> VN -> nth_error (c_rqs c) (N.to_nat (t_rq t)) = Some rq -> mn_task_ok c t = true ->
  failed_release c (Some w) id rq t = Panic n -> nocons n.
Proof.
  intros Hv Hrq Hm H. apply view_placed in Hv. unfold mn_task_ok in Hm. rewrite Hrq in Hm. unfold failed_release in H.
  destruct (t_state t) as [k0|w1 rv1|w1|w1|w1 rv1|[|w0 ws]|]; try destruct Hv;
    try (apply negb_true_iff in Hm); rewrite Hm in H; rewrite ?N.eqb_refl in H; cbn [negb] in H; psteps H; sub_nc.
Qed.

Lemma nstate_placed st' st : nstate st' = nstate st -> (forall n, st <> Waiting n) -> st' = st.
Proof.
  intros E Hw. destruct st; [destruct (Hw _ eq_refl)|..]; destruct st'; cbn [nstate] in E; try discriminate E; exact E.
Qed.

Lemma task_failed_cons s w id k r n :
  SP x0 s (pum_us w (UFailed id k :: r)) [] -> task_failed s (Some w) id k = Panic n -> nocons n.
Proof.
  intros HS H. unfold task_failed in H. cbv zeta in H.
  destruct (find_task (c_tasks (core_of s)) id) as [t|] eqn:Ef; [|discriminate].
  destruct (pum_us_proc _ _ _ _ _ HS) as (p & Hp).
  pose proof (head_item _ _ _ _ _ _ _ _ _ HS Ef eq_refl Hp) as Hl. cbn [uitem_of] in Hl. rewrite sel_same in Hl. cbn [app] in Hl.
  pose proof (LS_fail _ _ _ _ _ Hl) as Hv. clear Hl.
  pose proof (sp_cs _ _ _ _ HS) as Hcs.
  destruct (get_rq (c_rqs (core_of s)) (t_rq t)) as [rq| |] eqn:Erq; cbn [bind] in H; [|discriminate | inversion H; subst; eapply get_rq_nc; exact Erq].
  match type of H with bind ?m _ = _ => destruct m as [c1| |] eqn:E1; cbn [bind] in H; [|discriminate|] end.
  2:{ injection H as <-. exact (failed_release_cons (core_of s) w id rq t _ _ Hv (get_rq_nth _ _ _ Erq) (sp_mnt _ _ _ _ HS _ _ Ef eq_refl) E1). }
  pose proof (failed_release_CF x0 (core_of s) (Some w) id rq t c1 E1) as F1.
  destruct (recursive_consumers (c_tasks c1) t) as [csm| |] eqn:E2; cbn [bind] in H; [|discriminate | inversion H; subst; eapply recursive_consumers_nc; exact E2].
  destruct (remove_waiting_consumers c1 csm) as [c2| |] eqn:E3; cbn [bind] in H; [|discriminate | inversion H; subst; eapply remove_waiting_consumers_nc; exact E3].
  destruct (remove_task c2 id) as [[c3 stt]| |] eqn:E4; cbn [bind] in H; [|discriminate | inversion H; subst; eapply remove_task_nc; exact E4].
  (* 170: the removed task is the reported one, up to the number of its unfinished dependencies *)
  destruct (remove_waiting_consumers_CF x0 _ _ _ (CF_sorted_after _ _ _ F1 Hcs) E3) as [F2 _].
  pose proof (CF_trans _ _ _ _ F1 F2) as F12.
  destruct (remove_task_CF x0 _ _ _ _ (CF_sorted_after _ _ _ F12 Hcs) E4) as (_ & _ & t2 & Ef2 & Estt).
  destruct (cf_tasks _ _ _ F12 _ _ Ef2 eq_refl) as (t0 & Ef0 & Ens & _). rewrite Ef in Ef0. injection Ef0 as <-.
  apply view_placed in Hv. rewrite Estt, (nstate_placed _ _ Ens) in H by (intros n0 E; rewrite E in Hv; exact Hv).
  destruct (t_state t) as [| | | | |[|]|]; try destruct Hv; cbn [bind] in H; psteps H; sub_nc.
Qed.

Lemma apply_one_cons s w u r n : SP x0 s (pum_us w (u :: r)) [] -> apply_one s w u = Panic n -> nocons n.
Proof.
  intros HS H. destruct u; cbn [apply_one] in H.
  - eapply task_finished_cons; eassumption.
  - destruct (task_failed s (Some w) t k) eqn:E; cbn [bind] in H; try discriminate. inversion H; subst. eapply task_failed_cons; eassumption.
  - eapply task_running_cons; [exact HS | left; reflexivity | exact H].
  - eapply task_running_cons; [exact HS | right; reflexivity | exact H].
  - eapply task_reject_cons; eassumption.
  - destruct (request_enabled s w rq rv) eqn:E; cbn [bind] in H; try discriminate. inversion H; subst. eapply request_enabled_nc; exact E.
Qed.

Lemma apply_updates_cons' us : forall s w need n, SP x0 s (pum_us w us) [] -> apply_updates s w us need = Panic n -> nocons n.
Proof.
  induction us as [|u r IH]; intros s w need n HS H; [cbn in H; discriminate|].
  rewrite apply_updates_cons in H. destruct (apply_one s w u) as [[s1 n1]| |] eqn:E; cbn [bind] in H; [|discriminate|].
  - eapply IH; [|exact H]. eapply apply_one_SP; eassumption.
  - inversion H; subst. eapply apply_one_cons; eassumption.
Qed.

Theorem worker_messages_consistent s w n :
  PROTO s -> UH s -> step s (OpDUp w) = Panic n -> nocons n.
Proof.
  intros HP HU H. cbn [step] in H.
  destruct (find_proc (s_procs s) w) as [p|] eqn:Hp; [|discriminate]. destruct (p_up p) as [|m rest] eqn:Eu; [discriminate|].
  pose proof (SP_pop s w p m rest [OUp w m] HP HU Hp Eu) as S1.
  destruct m as [us|ids].
  - unfold on_task_update in H. destruct (apply_updates _ w us false) as [[s1 need]| |] eqn:E; cbn [bind] in H; [|discriminate|].
    + destruct (need && _); discriminate.
    + inversion H; subst. eapply apply_updates_cons'; [|exact E]. exact S1.
  - eapply on_retract_response_nc; exact H.
Qed.
