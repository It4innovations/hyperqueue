(** C06 "instance ids strictly increase": what the server's functions do to the worker
    processes, the launches in the output and the ids known to the job layer.
    Relation [PR A s s'] (chained like NoPanicL0.R): the output has the same launches; every process
    of [s'] is a process of [s] with the same backlog, running set and up channel, and a down channel
    extended by messages satisfying [A]; an id seen by the job layer stays seen. *)
From HQ Require Import Base.Prelude Cluster.Types Cluster.Core Cluster.Reactor Cluster.Worker Cluster.Server Cluster.Sys Cluster.Monitors Cluster.ProofsJob Cluster.ProofsMore Cluster.ProofsTerminal Cluster.ProofsStep Cluster.ProofsFinal Cluster.BijBase Cluster.BijCore Cluster.BijHq Cluster.BijSt Cluster.BijReact Cluster.ProofsOnce Cluster.InvWBase Cluster.NoPanicC1 Cluster.NoPanicL0 Cluster.NoPanicU0 Cluster.NoPanicU1 Cluster.NoPanicU6 Cluster.NoPanicU7 Cluster.NoPanicU14 Cluster.NoPanicU17 Cluster.ExecU1.
From HQ Require Import Cluster.StepShape.
From HQ Require Import Cluster.ModelFacts.
From Coq Require Import ZArith Lia Sorting.Sorted.
Local Open Scope N_scope.

Arguments N.add : simpl never.
Arguments N.sub : simpl never.

Definition LS (s : st) : list launch := launches (snd s).
Definition SM (s s' : st) : Prop := forall x, seen (hq_of s) x = true -> seen (hq_of s') x = true.

Lemma LS_emit s o : (forall l, o <> OLaunch l) -> LS (emit s o) = LS s.
Proof. intros H. unfold LS, emit. cbn [snd]. rewrite launches_app. destruct o; cbn; try apply app_nil_r. exfalso. eapply H. reflexivity. Qed.
Lemma LS_snd s s' : snd s' = snd s -> LS s' = LS s.
Proof. unfold LS. intros ->. reflexivity. Qed.

Ltac lsn := repeat (rewrite LS_emit by (intros; discriminate)); try reflexivity.

Lemma check_termination_LS s jid s' : check_termination s jid = Ok s' -> LS s' = LS s.
Proof. unfold check_termination. intros H. decs; lsn. Qed.
Lemma process_task_started_LS s t i ws rv s' : process_task_started s t i ws rv = Ok s' -> LS s' = LS s.
Proof. unfold process_task_started. intros H. decs; lsn. Qed.
Lemma process_task_finished_LS s t s' : process_task_finished s t = Ok s' -> LS s' = LS s.
Proof. unfold process_task_finished. intros H. dec H; try discriminate. rewrite (check_termination_LS _ _ _ H). lsn. Qed.
Lemma abort_tasks_LS s jid ids s' : abort_tasks s jid ids = Ok s' -> LS s' = LS s.
Proof. unfold abort_tasks. intros H. destruct ids; [inversion H; reflexivity|]. dec H. rewrite (check_termination_LS _ _ _ H). lsn. Qed.
Lemma set_cancel_state_LS s jid ids s' : set_cancel_state s jid ids = Ok s' -> LS s' = LS s.
Proof. unfold set_cancel_state. intros H. destruct ids; [inversion H; reflexivity|]. dec H. rewrite (check_termination_LS _ _ _ H). lsn. Qed.
Lemma process_task_failed_LS s t ab k s' ids : process_task_failed s t ab k = Ok (s', ids) -> LS s' = LS s.
Proof.
  unfold process_task_failed. intros H.
  apply bind_ok in H. destruct H as (s1 & H1 & H). apply bind_ok in H. destruct H as (j & _ & H).
  apply bind_ok in H. destruct H as (j1 & _ & H). apply bind_ok in H. destruct H as (s2 & H2 & H).
  apply bind_ok in H. destruct H as (j2 & _ & H).
  assert (E2 : LS s2 = LS s) by (rewrite (check_termination_LS _ _ _ H2); lsn; exact (abort_tasks_LS _ _ _ _ H1)).
  dec H; inversion H; subst; try exact E2.
  match goal with X : abort_tasks _ _ _ = Ok _ |- _ => rewrite (abort_tasks_LS _ _ _ _ X) end. exact E2.
Qed.
Lemma set_waiting_all_LS ts : forall s s', set_waiting_all s ts = Ok s' -> LS s' = LS s.
Proof.
  induction ts as [|t r IH]; cbn [set_waiting_all]; intros s s' H; [inversion H; reflexivity|].
  apply bind_ok in H. destruct H as (s1 & H1 & H). rewrite (IH _ _ H). unfold set_waiting_state in H1. decs; reflexivity.
Qed.
Lemma process_worker_lost_LS s w running reason s' : process_worker_lost s w running reason = Ok s' -> LS s' = LS s.
Proof. unfold process_worker_lost. intros H. dec H. inversion H; subst. lsn. eapply set_waiting_all_LS; eassumption. Qed.
Lemma submit_ok_resp_LS s jid s' : submit_ok_resp s jid = Ok s' -> LS s' = LS s.
Proof. unfold submit_ok_resp. intros H. decs; lsn. Qed.

Section Rel.
Variable A : wid -> dmsg -> Prop.

Definition PF (s s' : st) : Prop :=
  forall w p', find_proc (s_procs (fst s')) w = Some p' ->
    exists p add, find_proc (s_procs (fst s)) w = Some p /\ p_backlog p' = p_backlog p /\ p_running p' = p_running p /\
                  p_up p' = p_up p /\ p_down p' = p_down p ++ add /\ Forall (A w) add.
Definition PR (s s' : st) : Prop := LS s' = LS s /\ PF s s' /\ SM s s'.

Lemma PR_refl s : PR s s.
Proof.
  split; [reflexivity|]. split; [|intros x H; exact H]. intros w p' H. exists p', []. rewrite app_nil_r. repeat split; auto.
Qed.
Lemma PR_trans a b c : PR a b -> PR b c -> PR a c.
Proof.
  intros (L1 & P1 & S1) (L2 & P2 & S2). split; [congruence|]. split; [|intros x H; apply S2, S1, H].
  intros w p3 H3. destruct (P2 w p3 H3) as (p2 & add2 & H2 & B2 & R2 & U2 & D2 & F2).
  destruct (P1 w p2 H2) as (p1 & add1 & H1 & B1 & R1 & U1 & D1 & F1).
  exists p1, (add1 ++ add2). split; [exact H1|]. split; [congruence|]. split; [congruence|]. split; [congruence|].
  split; [rewrite D2, D1, app_assoc; reflexivity | apply Forall_app; auto].
Qed.

Lemma PR_same s s' : s_procs (fst s') = s_procs (fst s) -> hq_of s' = hq_of s -> LS s' = LS s -> PR s s'.
Proof.
  intros Ep Eh El. split; [exact El|]. split; [|intros x H; rewrite Eh; exact H].
  intros w p' H. rewrite Ep in H. exists p', []. rewrite app_nil_r. repeat split; auto.
Qed.
Lemma PR_emit s o : (forall l, o <> OLaunch l) -> PR s (emit s o).
Proof. intros H. apply PR_same; [reflexivity | reflexivity | apply LS_emit; exact H]. Qed.
Lemma PR_core s c : PR s (st_core s c).
Proof. apply PR_same; reflexivity. Qed.
Lemma PR_ask s : PR s (ask_scheduling s).
Proof. apply PR_same; reflexivity. Qed.
Lemma PR_job s s' : CP s' = CP s -> LS s' = LS s -> SM s s' -> PR s s'.
Proof.
  intros Ec El Es. split; [exact El|]. split; [|exact Es]. inversion Ec as [[E1 E2]].
  intros w p' H. rewrite E2 in H. exists p', []. rewrite app_nil_r. repeat split; auto.
Qed.
Lemma SM_chg P s s' : hq_chg P (hq_of s) (hq_of s') -> SM s s'.
Proof. intros H x Hx. eapply hq_chg_seen; eassumption. Qed.

Lemma PR_send s w m s' : send_worker s w m = Ok s' -> A w m -> PR s s'.
Proof.
  unfold send_worker. intros H Ha. destruct (find_proc (s_procs (fst s)) w) as [p|] eqn:Ep; [|discriminate]. inversion H; subst s'.
  split; [reflexivity|]. split; [|intros x Hx; exact Hx]. destruct (find_proc_some _ _ _ Ep) as [_ Hid].
  intros w' p' H'. cbn [fst with_procs s_procs] in H'. rewrite find_set_proc in H'. cbn [push_down p_id] in H'. rewrite Hid in H'.
  destruct (N.eqb w' w) eqn:E.
  - apply N.eqb_eq in E. subst w'. inversion H'; subst p'. exists p, [m]. cbn. repeat split; auto.
  - exists p', []. rewrite app_nil_r. repeat split; auto.
Qed.

Lemma find_map_push ps m w : find_proc (map (fun p => push_down p m) ps) w = option_map (fun p => push_down p m) (find_proc ps w).
Proof. induction ps as [|h r IH]; [reflexivity|]. cbn [map find_proc push_down p_id]. destruct (N.eqb w (p_id h)); [reflexivity | exact IH]. Qed.

Lemma PR_broadcast s m : (forall w, A w m) -> PR s (broadcast s m).
Proof.
  intros Ha. split; [reflexivity|]. split; [|intros x Hx; exact Hx].
  intros w p' H'. unfold broadcast in H'. cbn [fst with_procs s_procs] in H'. rewrite find_map_push in H'.
  destruct (find_proc (s_procs (fst s)) w) as [p|]; [|discriminate]. inversion H'; subst p'. exists p, [m]. cbn. repeat split; auto.
Qed.

Lemma PR_send_all msgs : forall s s', send_all s msgs = Ok s' -> (forall w m, In (w, m) msgs -> A w m) -> PR s s'.
Proof.
  induction msgs as [|[w m] r IH]; cbn [send_all]; intros s s' H Ha; [inversion H; subst; apply PR_refl|].
  apply bind_ok in H. destruct H as (s1 & H1 & H). eapply PR_trans; [eapply PR_send; [exact H1 | apply Ha; left; reflexivity]|].
  eapply IH; [exact H | intros w0 m0 Hin; apply Ha; right; exact Hin].
Qed.
End Rel.

Lemma PR_weaken (A B : wid -> dmsg -> Prop) s s' : (forall w m, A w m -> B w m) -> PR A s s' -> PR B s s'.
Proof.
  intros HAB (L & P & S). split; [exact L|]. split; [|exact S]. intros w p' Hp. destruct (P w p' Hp) as (p & add & X1 & X2 & X3 & X4 & X5 & X6).
  exists p, add. repeat split; auto. eapply Forall_impl; [|exact X6]. intros m. apply HAB.
Qed.

Definition quietm (m : dmsg) : Prop := match m with DCompute _ => False | _ => True end.
Definition quietA : wid -> dmsg -> Prop := fun _ m => quietm m.

Section Pass.
Variable A : wid -> dmsg -> Prop.
Hypothesis HA : forall w m, quietm m -> A w m.
Notation PR := (PR A).
Notation PR_refl := (PR_refl A).
Notation PR_trans := (PR_trans A).
Notation PR_core := (PR_core A).
Notation PR_ask := (PR_ask A).
Notation PR_same := (PR_same A).

Lemma process_retracted_PR s r s' : process_retracted s r = Ok s' -> PR s s'.
Proof.
  unfold process_retracted. intros H. destruct r; [inversion H; subst; apply PR_refl|].
  apply bind_ok in H. destruct H as ([c' groups] & H1 & H).
  eapply PR_trans; [apply (PR_core s c')|]. eapply PR_send_all; [exact H|].
  intros w m Hin. apply in_map_iff in Hin. destruct Hin as (g & E & _). inversion E; subst. apply HA. exact I.
Qed.

Lemma cancel_release_PR ids : forall s u r s1 u' r', cancel_release s ids u r = Ok (s1, u', r') -> PR s s1.
Proof.
  induction ids as [|id rest IH]; cbn [cancel_release]; intros s u r s1 u' r' H; [inversion H; subst; apply PR_refl|].
  destruct (find_task _ id) as [t|]; [|eapply IH; eassumption].
  dec H; (eapply PR_trans; [|eapply IH; exact H]); apply PR_same; reflexivity.
Qed.

Lemma on_cancel_tasks_PR s ids s' : on_cancel_tasks s ids = Ok s' -> PR s s'.
Proof.
  unfold on_cancel_tasks. intros H.
  apply bind_ok in H. destruct H as ([[s1 u] r] & H1 & H). apply bind_ok in H. destruct H as (c' & H2 & H).
  eapply PR_trans; [eapply cancel_release_PR; exact H1|].
  eapply PR_trans; [apply (PR_core s1 c')|]. eapply PR_send_all; [exact H|].
  intros w m Hin. apply in_map_iff in Hin. destruct Hin as (g & E & _). inversion E; subst. apply HA. exact I.
Qed.

Lemma process_task_failed_PR s t ab k s' ids : process_task_failed s t ab k = Ok (s', ids) -> PR s s'.
Proof.
  intros H. apply PR_job; [eapply process_task_failed_CP; exact H | eapply process_task_failed_LS; exact H|].
  eapply SM_chg. eapply process_task_failed_chg. exact H.
Qed.

Lemma task_failed_PR s w id k s' : task_failed s w id k = Ok s' -> PR s s'.
Proof.
  unfold task_failed. intros H. cbv zeta in H. destruct (find_task _ id) as [t|]; [|inversion H; subst; apply PR_refl].
  apply bind_ok in H. destruct H as (rq & _ & H). apply bind_ok in H. destruct H as (c1 & H1 & H).
  apply bind_ok in H. destruct H as (csm & _ & H). apply bind_ok in H. destruct H as (c2 & H2 & H).
  apply bind_ok in H. destruct H as ([c3 stt] & H3 & H). apply bind_ok in H. destruct H as (u & _ & H).
  apply bind_ok in H. destruct H as ([s1 cids] & H4 & H).
  assert (R4 : PR s s1) by (eapply PR_trans; [apply (PR_core s c3) | eapply process_task_failed_PR; exact H4]).
  destruct cids; [inversion H; subst; exact R4|].
  eapply PR_trans; [exact R4 | eapply on_cancel_tasks_PR; exact H].
Qed.

Lemma task_finished_PR s w id s' b : task_finished s w id = Ok (s', b) -> PR s s'.
Proof.
  unfold task_finished. intros H. cbv zeta in H. destruct (find_task _ id) as [t|]; [|inversion H; subst; apply PR_refl].
  apply bind_ok in H. destruct H as (rq & _ & H). apply bind_ok in H. destruct H as (c1 & H1 & H).
  apply bind_ok in H. destruct H as (s1 & H2 & H). apply bind_ok in H. destruct H as ([c3 ret] & H3 & H).
  apply bind_ok in H. destruct H as (s2 & H4 & H). apply bind_ok in H. destruct H as ([c4 stt] & H5 & H).
  destruct stt; try discriminate. inversion H; subst.
  eapply PR_trans; [apply (PR_core s (upd_task c1 (with_state t Finished)))|].
  eapply PR_trans; [apply PR_job; [eapply process_task_finished_CP; exact H2 | eapply process_task_finished_LS; exact H2
                                  | eapply SM_chg; exact (proj2 (process_task_finished_chg _ _ _ H2))]|].
  eapply PR_trans; [apply (PR_core s1 c3)|].
  eapply PR_trans; [eapply process_retracted_PR; exact H4|]. apply PR_core.
Qed.

Lemma task_running_PR s w id rv s' b : task_running s w id rv = Ok (s', b) -> PR s s'.
Proof.
  unfold task_running. intros H. cbv zeta in H. destruct (find_task _ id) as [t|]; [|inversion H; subst; apply PR_refl].
  apply bind_ok in H. destruct H as (rq & _ & H). apply bind_ok in H. destruct H as ([s1 ws] & H1 & H).
  apply bind_ok in H. destruct H as (s2 & H2 & H). inversion H; subst.
  eapply PR_trans; [|apply PR_job; [eapply process_task_started_CP; exact H2 | eapply process_task_started_LS; exact H2
                                   | eapply SM_chg; exact (proj1 (process_task_started_chg _ _ _ _ _ _ H2))]].
  dec H1; inversion H1; subst; try apply PR_refl; apply PR_same; reflexivity.
Qed.

Lemma requeue_PR s t c1 s' b :
  (do (qs, ret) <- add_ready_task (c_queues c1) (with_state t (Waiting 0));
   do s'' <- process_retracted (st_core s (with_queues (upd_task c1 (with_state t (Waiting 0))) qs)) ret;
   Ok (s'', true)) = Ok (s', b) -> PR s s'.
Proof.
  intros Hx. apply bind_ok in Hx. destruct Hx as ([qs ret] & _ & Hx). apply bind_ok in Hx. destruct Hx as (s2 & H2 & Hx).
  inversion Hx; subst. eapply PR_trans; [|eapply process_retracted_PR; exact H2]. apply PR_core.
Qed.

(** [task_reject]: the compute message of its redirect branch is not sent for a task that is not
    being retracted (the protocol excludes a reject of a task under retraction). *)
Lemma task_reject_PR s w id rv s' b :
  (forall t w1, find_task (c_tasks (core_of s)) id = Some t -> t_state t <> Retracting w1) ->
  task_reject s w id rv = Ok (s', b) -> PR s s'.
Proof.
  unfold task_reject. intros Hst H. cbv zeta in H. destruct (find_task _ id) as [t|] eqn:Ef; [|inversion H; subst; apply PR_refl].
  apply bind_ok in H. destruct H as (wk & Hwk & H). apply bind_ok in H. destruct H as (rq & _ & H).
  apply bind_ok in H. destruct H as ([c1 cont] & Hr & H).
  destruct (t_state t) eqn:Est; try (eapply requeue_PR; eassumption).
  exfalso. exact (Hst t _ eq_refl Est).
Qed.

Lemma request_enabled_PR s w rq rv s' : request_enabled s w rq rv = Ok s' -> PR s s'.
Proof. unfold request_enabled. intros H. dec H. inversion H; subst. apply PR_core. Qed.

Lemma lost_fail_running_PR l : forall s reason s', lost_fail_running s reason l = Ok s' -> PR s s'.
Proof.
  apply (lost_fail_running_rel PR PR_refl PR_trans).
  - intros s id t _. apply PR_core.
  - intros s id k s' _ Hf. exact (task_failed_PR _ _ _ _ _ Hf).
Qed.

Lemma on_new_tasks_PR s ts s' : on_new_tasks s ts = Ok s' -> PR s s'.
Proof.
  unfold on_new_tasks. intros H. destruct ts; [inversion H; subst; apply PR_refl|].
  apply bind_ok in H. destruct H as ([c' ret] & H1 & H). apply bind_ok in H. destruct H as (s1 & H2 & H). inversion H; subst.
  eapply PR_trans; [apply (PR_core s c')|]. eapply PR_trans; [eapply process_retracted_PR; exact H2 | apply PR_ask].
Qed.
End Pass.
