(** C05, accounting conjunct, part 1: resource vectors pointwise, the ghost-indexed accounting
    predicate of one worker and what the five functions that touch a worker's free counter do to it.

    The free counter of a single-node worker is changed by [insert_sn_task] and
    [task_from_prefilled_to_started] (SATURATING subtraction [res_sub]), by [remove_sn_task]
    (addition), and reset by [reset_mn_task] / [on_new_worker].  [accw rqf w] says: the counter has
    the length of the worker's total and, at EVERY index, free + sum of the requests of the assigned
    tasks = total, where the request of a task is given by a fixed function [rqf] (the "ghost";
    it is instantiated with [request_of c0] for the core [c0] at the start of a step, so that the
    predicate mentions the worker only and is insensitive to what happens to the task map). *)
From HQ Require Import Base.Prelude Cluster.Types Cluster.Core Cluster.Reactor Cluster.Worker Cluster.Server Cluster.Sys Cluster.Monitors Cluster.BijBase Cluster.InvWBase Cluster.InvWCore Cluster.InvWX1.
From HQ Require Import Cluster.ModelFacts.
From Coq Require Import ZArith Lia.
Local Open Scope N_scope.

Arguments N.add : simpl never.
Arguments N.sub : simpl never.

Definition at_ (i : nat) (l : list N) : N := nth i l 0.

Lemma at_nil i : at_ i [] = 0.
Proof. unfold at_. destruct i; reflexivity. Qed.
Lemma at_cons_0 h t : at_ 0 (h :: t) = h.
Proof. reflexivity. Qed.
Lemma at_cons_S i h t : at_ (S i) (h :: t) = at_ i t.
Proof. reflexivity. Qed.
Lemma at_beyond i l : (length l <= i)%nat -> at_ i l = 0.
Proof. intros H. unfold at_. apply nth_overflow. exact H. Qed.

Lemma res_add_length f : forall r, length (res_add f r) = length f.
Proof. induction f as [|h ht IH]; intros [|a t]; cbn [res_add length]; try reflexivity. rewrite IH. reflexivity. Qed.
Lemma res_sub_length f : forall r, length (res_sub f r) = length f.
Proof. induction f as [|h ht IH]; intros [|a t]; cbn [res_sub length]; try reflexivity. rewrite IH. reflexivity. Qed.

Lemma at_res_add f : forall r i, at_ i (res_add f r) = if (i <? length f)%nat then at_ i f + at_ i r else 0.
Proof.
  induction f as [|h ht IH]; intros r i.
  - destruct r; cbn [res_add length]; rewrite at_nil; destruct i; reflexivity.
  - destruct r as [|a t]; cbn [res_add].
    + rewrite at_nil. destruct (i <? length (h :: ht))%nat eqn:E; [lia|].
      apply Nat.ltb_ge in E. apply at_beyond. exact E.
    + destruct i as [|i]; [rewrite !at_cons_0; reflexivity|]. rewrite !at_cons_S, IH. reflexivity.
Qed.

(** The capped add-back of [remove_sn_task] is the plain one whenever the result stays within the cap
    - in particular under the accounting invariant. *)
Lemma res_add_cap_within f : forall r cap, length f = length cap -> (forall i, at_ i f + at_ i r <= at_ i cap) ->
  res_add_cap f r cap = res_add f r.
Proof.
  induction f as [|h ht IH]; intros [|a t] cap L H; cbn [res_add res_add_cap]; try reflexivity.
  destruct cap as [|c ct]; [discriminate|]. f_equal.
  - specialize (H O). rewrite !at_cons_0 in H. lia.
  - apply IH; [cbn in L; lia|]. intros i. specialize (H (S i)). rewrite !at_cons_S in H. exact H.
Qed.

Lemma at_res_sub f : forall r i, at_ i (res_sub f r) = at_ i f - at_ i r.
Proof.
  induction f as [|h ht IH]; intros r i.
  - destruct r; cbn [res_sub]; rewrite at_nil; lia.
  - destruct r as [|a t]; cbn [res_sub]; [rewrite at_nil; lia|].
    destruct i as [|i]; [rewrite !at_cons_0; reflexivity|]. rewrite !at_cons_S, IH. reflexivity.
Qed.

(** A missing component of the free counter counts as 0. *)
Lemma res_fits_cons f a t : res_fits f (a :: t) = (a <=? at_ 0 f) && res_fits (tl f) t.
Proof. destruct f; [destruct a|]; reflexivity. Qed.

Lemma at_S_tl i f : at_ (S i) f = at_ i (tl f).
Proof. destruct f; [rewrite !at_nil|]; reflexivity. Qed.

Lemma res_fits_iff f : forall r, res_fits f r = true <-> forall i, at_ i r <= at_ i f.
Proof.
  intros r. revert f. induction r as [|a t IH]; intros f.
  - split; [intros _ i; rewrite at_nil; apply N.le_0_l | destruct f; reflexivity].
  - rewrite res_fits_cons, andb_true_iff, N.leb_le, IH. split.
    + intros [H0 H] [|i]; [exact H0 | rewrite at_cons_S, at_S_tl; apply H].
    + intros H. split; [exact (H O) | intros i; rewrite <- at_S_tl; exact (H (S i))].
Qed.

Lemma res_eqb_iff a : forall b, res_eqb a b = true <-> a = b.
Proof.
  induction a as [|x r IH]; intros [|y r']; cbn [res_eqb]; try (split; [discriminate | intros X; inversion X]); [tauto|].
  rewrite andb_true_iff, IH, N.eqb_eq. split; [intros [-> ->]; reflexivity | intros X; inversion X; auto].
Qed.

Lemma at_ext a b : length a = length b -> (forall i, at_ i a = at_ i b) -> a = b.
Proof. intros L H. apply (nth_ext a b 0 0 L). intros i _. apply H. Qed.

Definition tot (rqf : tid -> list N) (a : list tid) (i : nat) : N :=
  fold_right (fun id acc => at_ i (rqf id) + acc) 0 a.

Lemma tot_nil rqf i : tot rqf [] i = 0.
Proof. reflexivity. Qed.
Lemma tot_cons rqf x a i : tot rqf (x :: a) i = at_ i (rqf x) + tot rqf a i.
Proof. reflexivity. Qed.

Lemma tot_insert rqf id a i : tid_mem id a = false -> tot rqf (tid_insert id a) i = at_ i (rqf id) + tot rqf a i.
Proof.
  induction a as [|h t IH]; cbn [tid_mem tid_insert]; intros H; [reflexivity|].
  apply orb_false_iff in H. destruct H as [E M]. rewrite E.
  destruct (tid_ltb id h); [reflexivity|]. rewrite !tot_cons, (IH M). lia.
Qed.

Lemma tot_remove rqf id a i : tid_mem id a = true -> tot rqf a i = at_ i (rqf id) + tot rqf (tid_remove id a) i.
Proof.
  induction a as [|h t IH]; cbn [tid_mem tid_remove]; intros H; [discriminate|].
  destruct (tid_eqb id h) eqn:E.
  - apply tid_eqb_eq in E. subst h. reflexivity.
  - cbn [orb] in H. rewrite !tot_cons, (IH H). lia.
Qed.

Lemma tot_ext g h a i : (forall x, In x a -> g x = h x) -> tot g a i = tot h a i.
Proof.
  induction a as [|y r IH]; intros E; [reflexivity|]. rewrite !tot_cons, (E y (or_introl eq_refl)), IH; [reflexivity|].
  intros x Hx. apply E. right. exact Hx.
Qed.

(** [Monitors.sum_requests] is the sum truncated to three components. *)
Lemma fold_res_add_length (g : tid -> list N) a : forall acc, length (fold_left (fun x id => res_add x (g id)) a acc) = length acc.
Proof. induction a as [|y r IH]; intros acc; cbn [fold_left]; [reflexivity|]. rewrite IH, res_add_length. reflexivity. Qed.

Lemma at_fold_res_add (g : tid -> list N) a i : forall acc,
  at_ i (fold_left (fun x id => res_add x (g id)) a acc) = if (i <? length acc)%nat then at_ i acc + tot g a i else 0.
Proof.
  induction a as [|y r IH]; intros acc; cbn [fold_left].
  - rewrite tot_nil. destruct (i <? length acc)%nat eqn:E; [lia|]. apply Nat.ltb_ge in E. apply at_beyond. exact E.
  - rewrite IH, res_add_length, at_res_add, tot_cons. destruct (i <? length acc)%nat; [lia | reflexivity].
Qed.

Lemma sum_requests_length c a : length (sum_requests c a) = 3%nat.
Proof. unfold sum_requests. rewrite fold_res_add_length. reflexivity. Qed.

Lemma at_sum_requests c a i : at_ i (sum_requests c a) = if (i <? 3)%nat then tot (request_of c) a i else 0.
Proof.
  unfold sum_requests. rewrite at_fold_res_add. cbn [length].
  destruct (i <? 3)%nat eqn:E; [|reflexivity]. apply Nat.ltb_lt in E.
  destruct i as [|[|[|i]]]; try lia; reflexivity.
Qed.

Definition accw (rqf : tid -> list N) (w : sworker) : Prop :=
  match w_assign w with
  | Sn a _ f => length f = length (w_res w) /\ forall i, at_ i f + tot rqf a i = at_ i (w_res w)
  | Mn _ _ => True
  end.

Definition wfits (wk : sworker) (rq : list N) : bool :=
  match w_assign wk with Sn _ _ f => res_fits f rq | Mn _ _ => true end.

(** Both operations that take resources add [id] to the assigned set and subtract the request from
    the free counter, saturating.  On that shape the accounting survives exactly if the request fits:
    a subtraction that saturates breaks it (so [wfits] is what separates the good histories from
    F23 / an ill-fitting answer). *)
Lemma accw_sub_iff rqf wk id a p p' f :
  w_assign wk = Sn a p f -> tid_mem id a = false -> accw rqf wk ->
  (accw rqf (with_assign wk (Sn (tid_insert id a) p' (res_sub f (rqf id)))) <-> wfits wk (rqf id) = true).
Proof.
  unfold accw, wfits. intros -> M [L A]. cbn [w_assign w_res with_assign]. rewrite res_sub_length, res_fits_iff.
  assert (E : forall i, at_ i (res_sub f (rqf id)) + tot rqf (tid_insert id a) i = at_ i (w_res wk) <-> at_ i (rqf id) <= at_ i f).
  { intros i. rewrite at_res_sub, (tot_insert _ _ _ _ M). specialize (A i). lia. }
  split; [intros [_ A'] i; apply E, A' | intros F; split; [exact L | intros i; apply E, F]].
Qed.

Lemma accw_insert_iff rqf wk id wk' :
  accw rqf wk -> insert_sn_task wk id (rqf id) = Ok wk' -> (accw rqf wk' <-> wfits wk (rqf id) = true).
Proof.
  unfold insert_sn_task. intros A H. destruct (w_assign wk) as [a p f|] eqn:Ea; [|discriminate].
  destruct (tid_mem id a) eqn:M; [discriminate|]. injection H as <-. exact (accw_sub_iff _ _ _ _ _ _ _ Ea M A).
Qed.

Lemma accw_p2s_iff rqf wk id wk' :
  accw rqf wk -> task_from_prefilled_to_started wk id (rqf id) = Ok wk' -> (accw rqf wk' <-> wfits wk (rqf id) = true).
Proof.
  unfold task_from_prefilled_to_started. intros A H. destruct (w_assign wk) as [a p f|] eqn:Ea; [|discriminate].
  destruct (negb (tid_mem id p)); [discriminate|].
  destruct (tid_mem id a) eqn:M; [discriminate|]. injection H as <-. exact (accw_sub_iff _ _ _ _ _ _ _ Ea M A).
Qed.

Lemma accw_insert_conv rqf wk id wk' :
  accw rqf wk -> insert_sn_task wk id (rqf id) = Ok wk' -> accw rqf wk' -> wfits wk (rqf id) = true.
Proof. intros A H. apply (accw_insert_iff _ _ _ _ A H). Qed.

Lemma accw_p2s_conv rqf wk id wk' :
  accw rqf wk -> task_from_prefilled_to_started wk id (rqf id) = Ok wk' -> accw rqf wk' -> wfits wk (rqf id) = true.
Proof. intros A H. apply (accw_p2s_iff _ _ _ _ A H). Qed.

Lemma accw_remove rqf wk id rq wk' :
  accw rqf wk -> remove_sn_task wk id rq = Ok wk' -> rq = rqf id -> accw rqf wk'.
Proof.
  unfold accw, remove_sn_task. destruct (w_assign wk) as [a p f|]; [|discriminate].
  intros [L A] H ->. destruct (tid_mem id a) eqn:M; [|discriminate]. injection H as <-.
  cbn [w_assign w_res with_assign].
  assert (A' : forall i, at_ i f + at_ i (rqf id) + tot rqf (tid_remove id a) i = at_ i (w_res wk)).
  { intros i. rewrite <- (A i), (tot_remove _ _ _ i M). lia. }
  rewrite res_add_cap_within; [| exact L | intros i; specialize (A' i); lia].
  split; [rewrite res_add_length; exact L|].
  intros i. rewrite at_res_add. specialize (A' i). destruct (i <? length f)%nat eqn:E; [exact A'|].
  apply Nat.ltb_ge in E. rewrite (at_beyond i f E) in A'. rewrite (at_beyond i (w_res wk)) in * by lia. lia.
Qed.

Lemma accw_remove_prefill rqf wk id wk' : accw rqf wk -> remove_prefill_task wk id = Ok wk' -> accw rqf wk'.
Proof.
  unfold accw, remove_prefill_task. destruct (w_assign wk) as [a p f|]; [|discriminate].
  intros A H. destruct (tid_mem id p); [|discriminate]. inversion H; subst. exact A.
Qed.

Lemma accw_insert_prefill rqf wk id wk' : accw rqf wk -> insert_prefill_task wk id = Ok wk' -> accw rqf wk'.
Proof.
  unfold accw, insert_prefill_task. destruct (w_assign wk) as [a p f|]; [|discriminate].
  intros A H. destruct (tid_mem id p); [discriminate|]. inversion H; subst. exact A.
Qed.

Lemma accw_reset rqf wk : accw rqf (reset_mn_task wk).
Proof. unfold accw, reset_mn_task. cbn [w_assign w_res with_assign]. split; [reflexivity|]. intros i. rewrite tot_nil. lia. Qed.

Lemma accw_set_mn rqf wk t root wk' : set_mn_task wk t root = Ok wk' -> accw rqf wk'.
Proof. unfold set_mn_task. destruct (worker_is_free wk); [|discriminate]. intros H; inversion H; subst. exact I. Qed.

Lemma accw_blocked rqf wk b : accw rqf wk -> accw rqf (with_blocked wk b).
Proof. unfold accw. cbn [w_assign w_res with_blocked]. auto. Qed.

Lemma accw_new rqf w rs g : accw rqf (mkSW w (Sn [] [] rs) rs [] g false).
Proof. unfold accw. cbn [w_assign w_res]. split; [reflexivity|]. intros i. rewrite tot_nil. lia. Qed.

Lemma accw_ext g h wk : (forall a p f x, w_assign wk = Sn a p f -> In x a -> g x = h x) -> accw g wk -> accw h wk.
Proof.
  unfold accw. destruct (w_assign wk) as [a p f|]; [|auto]. intros E [L A]. split; [exact L|].
  intros i. rewrite <- (tot_ext g h a i); [apply A|]. intros x Hx. eapply E; [reflexivity | exact Hx].
Qed.

Definition ACCW (rqf : tid -> list N) (ws : list sworker) : Prop := forall wk, In wk ws -> accw rqf wk.

Lemma set_worker_in ws x y : In y (set_worker ws x) -> y = x \/ In y ws.
Proof.
  induction ws as [|h r IH]; cbn [set_worker In]; [intros [H|[]]; auto|].
  destruct (N.eqb (w_id x) (w_id h)); cbn [In]; [intros [H|H]; auto|].
  destruct (N.ltb (w_id x) (w_id h)); cbn [In]; [intros [H|[H|H]]; auto|].
  intros [H|H]; [auto|]. destruct (IH H); auto.
Qed.
Lemma del_worker_in ws w y : In y (del_worker ws w) -> In y ws.
Proof.
  induction ws as [|h r IH]; cbn [del_worker In]; [auto|].
  destruct (N.eqb w (w_id h)); [auto|]. cbn [In]. intros [H|H]; auto.
Qed.

Lemma ACCW_set rqf ws x : ACCW rqf ws -> accw rqf x -> ACCW rqf (set_worker ws x).
Proof. intros A X y H. destruct (set_worker_in _ _ _ H) as [->|H']; [exact X | apply A; exact H']. Qed.
Lemma ACCW_del rqf ws w : ACCW rqf ws -> ACCW rqf (del_worker ws w).
Proof. intros A y H. apply A. eapply del_worker_in. exact H. Qed.
Definition lk (rqs : list rqdef) (n : N) : list N :=
  match nth_error rqs (N.to_nat n) with Some r => rq_res r | None => [] end.

Lemma get_rq_lk rqs n r : get_rq rqs n = Ok r -> lk rqs n = rq_res r.
Proof. unfold get_rq, lk. destruct (nth_error rqs (N.to_nat n)); intros H; inversion H; reflexivity. Qed.

Lemma request_of_lk c id t : find_task (c_tasks c) id = Some t -> request_of c id = lk (c_rqs c) (t_rq t).
Proof. intros H. unfold request_of, lk. rewrite H. reflexivity. Qed.

Lemma request_of_get_rq c id t rq :
  find_task (c_tasks c) id = Some t -> get_rq (c_rqs c) (t_rq t) = Ok rq -> request_of c id = rq_res rq.
Proof. intros Hf Hr. rewrite (request_of_lk _ _ _ Hf). apply get_rq_lk. exact Hr. Qed.

(** Every task's request is what the ghost says ([rqs] = the request table, which no step other
    than a submit changes). *)
Definition TL (rqf : tid -> list N) (rqs : list rqdef) (ts : list task) : Prop :=
  forall t, In t ts -> lk rqs (t_rq t) = rqf (t_id t).

Definition AI (rqf : tid -> list N) (rqs : list rqdef) (c : core) : Prop :=
  ACCW rqf (c_workers c) /\ c_rqs c = rqs /\ TL rqf rqs (c_tasks c).

Lemma TL_set rqf rqs ts x : TL rqf rqs ts -> lk rqs (t_rq x) = rqf (t_id x) -> TL rqf rqs (set_task ts x).
Proof. intros H X t Hin. destruct (set_task_in _ _ _ Hin) as [->|Hin']; [exact X | apply H; exact Hin']. Qed.
Lemma TL_del rqf rqs ts id : TL rqf rqs ts -> TL rqf rqs (del_task ts id).
Proof. intros H t Hin. apply H. eapply del_task_in. exact Hin. Qed.

Lemma AI_workers rqf rqs c : AI rqf rqs c -> ACCW rqf (c_workers c).
Proof. intros H. exact (proj1 H). Qed.
Lemma AI_rqs rqf rqs c : AI rqf rqs c -> c_rqs c = rqs.
Proof. intros H. exact (proj1 (proj2 H)). Qed.

Lemma AI_find rqf rqs c id t : AI rqf rqs c -> find_task (c_tasks c) id = Some t -> lk rqs (t_rq t) = rqf (t_id t) /\ t_id t = id.
Proof. intros (_ & _ & H) Hf. destruct (find_task_some _ _ _ Hf) as [Hin Hid]. split; [apply H; exact Hin | exact Hid]. Qed.

Lemma AI_rq rqf rqs c t rq :
  AI rqf rqs c -> lk rqs (t_rq t) = rqf (t_id t) -> get_rq (c_rqs c) (t_rq t) = Ok rq -> rq_res rq = rqf (t_id t).
Proof. intros HA E Hr. rewrite <- E, <- (AI_rqs _ _ _ HA). symmetry. apply get_rq_lk. exact Hr. Qed.

Lemma AI_get_rq rqf rqs c id t rq : AI rqf rqs c -> find_task (c_tasks c) id = Some t -> get_rq (c_rqs c) (t_rq t) = Ok rq -> rq_res rq = rqf id.
Proof. intros HA Hf Hr. destruct (AI_find _ _ _ _ _ HA Hf) as [E <-]. eapply AI_rq; eassumption. Qed.

Lemma AI_worker rqf rqs c w wk : AI rqf rqs c -> find_worker (c_workers c) w = Some wk -> accw rqf wk.
Proof. intros HA H. apply (AI_workers _ _ _ HA). apply (find_worker_some _ _ _ H). Qed.

Lemma AI_upd_worker rqf rqs c x : AI rqf rqs c -> accw rqf x -> AI rqf rqs (upd_worker c x).
Proof. intros (A & R & T) X. split; [apply ACCW_set; assumption | split; [exact R | exact T]]. Qed.

Lemma AI_upd_task rqf rqs c x : AI rqf rqs c -> lk rqs (t_rq x) = rqf (t_id x) -> AI rqf rqs (upd_task c x).
Proof. intros (A & R & T) X. split; [exact A | split; [exact R | apply TL_set; assumption]]. Qed.

Lemma AI_upd_same rqf rqs c id t x : AI rqf rqs c -> find_task (c_tasks c) id = Some t -> t_id x = t_id t -> t_rq x = t_rq t -> AI rqf rqs (upd_task c x).
Proof.
  intros H Hf Ei Er. apply AI_upd_task; [exact H|]. rewrite Ei, Er. apply (AI_find _ _ _ _ _ H Hf).
Qed.

(** [AI] reads the workers, the tasks and the request table only: for cores that differ in the queues,
    the redirects or the flag it is the same proposition up to conversion. *)
Lemma AI_with_queues rqf rqs c q : AI rqf rqs c -> AI rqf rqs (with_queues c q).
Proof. intros H. exact H. Qed.
Lemma AI_with_redirects rqf rqs c r : AI rqf rqs c -> AI rqf rqs (with_redirects c r).
Proof. intros H. exact H. Qed.

Lemma AI_with_state rqf rqs c id t st : AI rqf rqs c -> find_task (c_tasks c) id = Some t -> AI rqf rqs (upd_task c (with_state t st)).
Proof. intros H Hf. eapply AI_upd_same; [exact H | exact Hf | reflexivity | reflexivity]. Qed.

Lemma AI_remove_sn rqf rqs c w wk id rq wk' :
  AI rqf rqs c -> get_worker (c_workers c) w = Ok wk -> remove_sn_task wk id rq = Ok wk' -> rq = rqf id -> AI rqf rqs (upd_worker c wk').
Proof. intros HA Hw H E. apply AI_upd_worker; [exact HA|]. eapply accw_remove; [exact (AI_worker _ _ _ _ _ HA (get_worker_find _ _ _ Hw)) | exact H | exact E]. Qed.

Lemma AI_remove_prefill rqf rqs c w wk id wk' :
  AI rqf rqs c -> get_worker (c_workers c) w = Ok wk -> remove_prefill_task wk id = Ok wk' -> AI rqf rqs (upd_worker c wk').
Proof. intros HA Hw H. apply AI_upd_worker; [exact HA|]. eapply accw_remove_prefill; [exact (AI_worker _ _ _ _ _ HA (get_worker_find _ _ _ Hw)) | exact H]. Qed.
