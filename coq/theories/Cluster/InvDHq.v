(** C03, the dependency invariant, part 6: the job-layer side.

    Dependencies are ids KNOWN to the job layer (a key of the job's task list), the ids of new
    tasks are unknown to it.  To use this, this file shows that the set of known ids only grows
    ([KL s s']) along every function of the job layer and of the reactor - except when a whole
    job is forgotten, which the step theorem treats separately. *)
From HQ Require Import Base.Prelude Cluster.Types Cluster.Core Cluster.Reactor Cluster.Worker Cluster.Server Cluster.Sys Cluster.ProofsJob Cluster.ProofsMore Cluster.ProofsTerminal Cluster.ProofsStep Cluster.BijBase Cluster.BijCore Cluster.BijHq Cluster.BijSt Cluster.BijReact Cluster.ProofsFinal Cluster.BijFinal Cluster.InvQBase.
From HQ Require Import Cluster.RejHyp Cluster.StepShape.
From HQ Require Import Cluster.ModelFacts.
From Coq Require Import ZArith Lia.
Local Open Scope N_scope.

Arguments N.add : simpl never.
Arguments N.sub : simpl never.

Definition ldom (l l' : list (N * jstate)) : Prop := forall k, jt_find l k <> None -> jt_find l' k <> None.
Definition known (s : st) (d : tid) : Prop := exists l, jt s (fst d) = Some l /\ jt_find l (snd d) <> None.
Definition KL (s s' : st) : Prop := forall id l, jt s id = Some l -> exists l', jt s' id = Some l' /\ ldom l l'.

Lemma ldom_refl l : ldom l l.
Proof. intros k H; exact H. Qed.
Lemma ldom_set l t v : ldom l (jt_set l t v).
Proof. intros k H. rewrite jt_find_set. destruct (N.eqb k t); [discriminate | exact H]. Qed.

Lemma KL_refl s : KL s s.
Proof. intros id l H. exists l. split; [exact H | apply ldom_refl]. Qed.
Lemma KL_trans s1 s2 s3 : KL s1 s2 -> KL s2 s3 -> KL s1 s3.
Proof.
  intros A B id l H. destruct (A _ _ H) as (l2 & H2 & D2). destruct (B _ _ H2) as (l3 & H3 & D3).
  exists l3. split; [exact H3 | intros k Hk; apply D3, D2, Hk].
Qed.
Lemma KL_jt s s' : (forall id, jt s' id = jt s id) -> KL s s'.
Proof. intros E id l H. exists l. split; [rewrite E; exact H | apply ldom_refl]. Qed.
Lemma KL_same s s' : hq_of s' = hq_of s -> KL s s'.
Proof. intros E. apply KL_jt. apply jt_same. exact E. Qed.
Lemma KL_known s s' d : KL s s' -> known s d -> known s' d.
Proof. intros K (l & Hl & Hk). destruct (K _ _ Hl) as (l' & Hl' & D). exists l'. split; [exact Hl' | apply D; exact Hk]. Qed.

Lemma KL_set s s' j' l :
  jt s (j_id j') = Some l -> ldom l (j_tasks j') -> (forall id, jt s' id = jt (hq_set_job s j') id) -> KL s s'.
Proof.
  intros Hl D E id l0 H0. rewrite E, jt_set_job. destruct (N.eqb id (j_id j')) eqn:Ei.
  - apply N.eqb_eq in Ei. subst id. rewrite Hl in H0. inversion H0; subst. exists (j_tasks j'). split; [reflexivity | exact D].
  - exists l0. split; [exact H0 | apply ldom_refl].
Qed.

Lemma KL_put s s' jid site j j' :
  hq_get_job s jid site = Ok j -> (forall id, jt s' id = jt (hq_set_job s j') id) ->
  j_id j' = j_id j -> ldom (j_tasks j) (j_tasks j') -> KL s s'.
Proof.
  intros Hj E Hi D. destruct (jt_get _ _ _ _ Hj) as [Ej Eid].
  eapply (KL_set s s' j' (j_tasks j)); [rewrite Hi, Eid; exact Ej | exact D | exact E].
Qed.

Lemma check_termination_KL s jid s' : check_termination s jid = Ok s' -> KL s s'.
Proof. intros H. apply KL_jt. apply (check_termination_jt _ _ _ H). Qed.

Lemma process_task_started_KL s t i ws rv s' : process_task_started s t i ws rv = Ok s' -> KL s s'.
Proof.
  unfold process_task_started. intros H. apply bind_ok in H. destruct H as (j & Hj & H).
  destruct (jt_find (j_tasks j) (snd t)) as [v|]; [|discriminate]. inversion H; subst.
  eapply KL_put; [exact Hj | intros id; reflexivity | |].
  - destruct v; reflexivity.
  - destruct v; try apply ldom_refl. apply ldom_set.
Qed.

Lemma process_task_finished_KL s t s' : process_task_finished s t = Ok s' -> KL s s'.
Proof.
  unfold process_task_finished. intros H. apply bind_ok in H. destruct H as (j & Hj & H).
  destruct (jt_find (j_tasks j) (snd t)) as [v|]; [|discriminate]. destruct v; try discriminate.
  apply bind_ok in H. destruct H as (nr & _ & H).
  eapply KL_trans; [|eapply check_termination_KL; exact H].
  eapply KL_put; [exact Hj | intros id; reflexivity | reflexivity | apply ldom_set].
Qed.

Lemma set_waiting_state_KL s t s' : set_waiting_state s t = Ok s' -> KL s s'.
Proof.
  unfold set_waiting_state. intros H. apply bind_ok in H. destruct H as (j & Hj & H).
  destruct (jt_find (j_tasks j) (snd t)) as [v|]; [|discriminate].
  destruct v; try (inversion H; subst; apply KL_refl).
  apply bind_ok in H. destruct H as (nr & _ & H). inversion H; subst.
  eapply KL_put; [exact Hj | intros id; reflexivity | reflexivity | apply ldom_set].
Qed.

Lemma set_waiting_all_KL ts : forall s s', set_waiting_all s ts = Ok s' -> KL s s'.
Proof.
  induction ts as [|t r IH]; cbn [set_waiting_all]; intros s s' H; [inversion H; subst; apply KL_refl|].
  apply bind_ok in H. destruct H as (s1 & H1 & H). eapply KL_trans; [eapply set_waiting_state_KL; exact H1 | eapply IH; exact H].
Qed.

Lemma process_worker_lost_KL s w running reason s' : process_worker_lost s w running reason = Ok s' -> KL s s'.
Proof.
  unfold process_worker_lost. intros H. apply bind_ok in H. destruct H as (s1 & H1 & H). inversion H; subst.
  eapply KL_trans; [eapply set_waiting_all_KL; exact H1 | apply KL_same; reflexivity].
Qed.

Lemma mark_tasks_ldom target site ids j j' : mark_tasks j ids target site = Ok j' -> j_id j' = j_id j /\ ldom (j_tasks j) (j_tasks j').
Proof.
  intros H. destruct (mark_tasks_find _ _ _ _ _ H) as (I & _ & F). split; [exact I|].
  intros k Hk. rewrite F. destruct (snd_mem k ids); [discriminate | exact Hk].
Qed.

Lemma abort_tasks_KL s jid ids s' : abort_tasks s jid ids = Ok s' -> KL s s'.
Proof.
  unfold abort_tasks. destruct ids as [|i0 ir]; [intros H; inversion H; subst; apply KL_refl|].
  intros H. apply bind_ok in H. destruct H as (j & Hj & H).
  apply bind_ok in H. destruct H as (j1 & Hm & H). destruct (mark_tasks_ldom _ _ _ _ _ Hm) as [I1 D1].
  eapply KL_trans; [|eapply check_termination_KL; exact H].
  eapply KL_put; [exact Hj | intros id; reflexivity | exact I1 | exact D1].
Qed.

Lemma set_cancel_state_KL s jid ids s' : set_cancel_state s jid ids = Ok s' -> KL s s'.
Proof.
  unfold set_cancel_state. destruct ids as [|i0 ir]; [intros H; inversion H; subst; apply KL_refl|].
  intros H. apply bind_ok in H. destruct H as (j & Hj & H).
  apply bind_ok in H. destruct H as (j1 & Hm & H). destruct (mark_tasks_ldom _ _ _ _ _ Hm) as [I1 D1].
  eapply KL_trans; [|eapply check_termination_KL; exact H].
  eapply KL_put; [exact Hj | intros id; reflexivity | exact I1 | exact D1].
Qed.

Lemma process_task_failed_KL s t aborted k s' ids : process_task_failed s t aborted k = Ok (s', ids) -> KL s s'.
Proof.
  unfold process_task_failed. intros H.
  apply bind_ok in H. destruct H as (s1 & H1 & H). pose proof (abort_tasks_KL _ _ _ _ H1) as K1.
  apply bind_ok in H. destruct H as (j & Hj & H). destruct (jt_get _ _ _ _ Hj) as [Ej Eid].
  apply bind_ok in H. destruct H as (j1 & Hj1 & H).
  assert (P : j_id j1 = j_id j /\ ldom (j_tasks j) (j_tasks j1)).
  { destruct (jt_find (j_tasks j) (snd t)) as [v|]; [|discriminate]. destruct v; try discriminate.
    - inversion Hj1; subst. split; [reflexivity | apply ldom_set].
    - apply bind_ok in Hj1. destruct Hj1 as (nr & _ & Hj1). inversion Hj1; subst. split; [reflexivity | apply ldom_set]. }
  destruct P as [I1 D1].
  apply bind_ok in H. destruct H as (s2 & H2 & H).
  assert (K2 : KL s1 s2).
  { eapply KL_trans; [|eapply check_termination_KL; exact H2].
    eapply (KL_set s1 _ j1 (j_tasks j)); [rewrite I1, Eid; exact Ej | exact D1 | intros id; reflexivity]. }
  apply bind_ok in H. destruct H as (j2 & _ & H).
  destruct (j_maxfails j2) as [mf|]; [|inversion H; subst; eapply KL_trans; eassumption].
  destruct (N.ltb mf (j_nfail j2)); [|inversion H; subst; eapply KL_trans; eassumption].
  apply bind_ok in H. destruct H as (s3 & H3 & H). inversion H; subst.
  eapply KL_trans; [exact K1|]. eapply KL_trans; [exact K2 | eapply abort_tasks_KL; exact H3].
Qed.

Lemma task_failed_KL s w id k s' : task_failed s w id k = Ok s' -> KL s s'.
Proof.
  intros Hc. unfold task_failed in Hc.
  destruct (find_task _ id) as [t|]; [|inversion Hc; subst; apply KL_refl].
  inv_binds Hc.
  match goal with X : process_task_failed ?s0 _ _ _ = Ok (?s1, ?ids) |- _ =>
    assert (K1 : KL s s1) by (eapply KL_trans; [apply (KL_same s s0); reflexivity | eapply process_task_failed_KL; exact X]);
    destruct ids; [inversion Hc; subst; exact K1|] end.
  eapply KL_trans; [exact K1 | apply KL_same; eapply on_cancel_tasks_hq; exact Hc].
Qed.

Lemma task_finished_KL s w id s' b : task_finished s w id = Ok (s', b) -> KL s s'.
Proof.
  intros Hc. unfold task_finished in Hc.
  destruct (find_task _ id) as [t|]; [|inversion Hc; subst; apply KL_refl].
  inv_binds Hc.
  match goal with X : process_task_finished ?s0 _ = Ok ?s1 |- _ =>
    assert (K1 : KL s s1) by (eapply KL_trans; [apply (KL_same s s0); reflexivity | eapply process_task_finished_KL; exact X]) end.
  match goal with X : process_retracted _ _ = Ok _ |- _ => apply process_retracted_hq in X; cbn in X; rename X into R end.
  match type of Hc with match ?st with _ => _ end = _ => destruct st; try discriminate end.
  inversion Hc; subst. eapply KL_trans; [exact K1|]. apply KL_same. cbn. exact R.
Qed.

Lemma task_running_KL s w id rv s' b : task_running s w id rv = Ok (s', b) -> KL s s'.
Proof.
  intros Hc. unfold task_running in Hc.
  destruct (find_task _ id) as [t|]; [|inversion Hc; subst; apply KL_refl].
  inv_binds Hc. inversion Hc; subst.
  match goal with X : process_task_started ?s1 _ _ _ _ = Ok _ |- _ =>
    eapply KL_trans; [|eapply process_task_started_KL; exact X] end.
  apply KL_same.
  match goal with X : match t_state t with _ => _ end = Ok _ |- _ => rename X into Hm end.
  destruct (t_state t); try discriminate.
  - destruct (negb (N.eqb w0 w)); [discriminate|]. destruct (negb (N.eqb rv0 rv)); [discriminate|]. inversion Hm; subst. reflexivity.
  - destruct (negb (N.eqb w0 w)); [discriminate|]. inv_binds Hm. inversion Hm; subst. reflexivity.
  - destruct (negb (N.eqb w0 w)); [discriminate|]. inv_binds Hm. inversion Hm; subst. reflexivity.
  - destruct ws; [discriminate|]. destruct (N.eqb w0 w); [|discriminate]. inversion Hm; subst. reflexivity.
Qed.

Lemma apply_one_KL s w u s' n : apply_one s w u = Ok (s', n) -> KL s s'.
Proof.
  intros Hu. destruct u; cbn [apply_one] in Hu.
  - eapply task_finished_KL; eassumption.
  - inv_binds Hu. inversion Hu; subst. eapply task_failed_KL; eassumption.
  - eapply task_running_KL; eassumption.
  - eapply task_running_KL; eassumption.
  - apply KL_same. eapply task_reject_same; exact Hu.
  - inv_binds Hu. inversion Hu; subst. apply KL_same. eapply request_enabled_same; eassumption.
Qed.

Lemma apply_updates_KL us : forall s w need s' need', apply_updates s w us need = Ok (s', need') -> KL s s'.
Proof. exact (apply_updates_rel KL KL_refl KL_trans apply_one_KL us). Qed.

Lemma on_task_update_KL s w us s' : on_task_update s w us = Ok s' -> KL s s'.
Proof. apply (on_task_update_rel KL KL_refl KL_trans apply_one_KL). intros x. apply KL_same. reflexivity. Qed.

Lemma lost_fail_running_KL l : forall s reason s', lost_fail_running s reason l = Ok s' -> KL s s'.
Proof.
  apply (lost_fail_running_rel KL KL_refl KL_trans).
  - intros s id t _. apply KL_same. reflexivity.
  - intros s id k s' _ Hf. eapply task_failed_KL; exact Hf.
Qed.

Lemma on_remove_worker_KL s w reason a p t s' : on_remove_worker s w reason a p t = Ok s' -> KL s s'.
Proof.
  apply (on_remove_worker_rel KL KL_trans).
  - intros. apply KL_same. reflexivity.
  - intros l x w0 x' H. apply KL_same. exact (lost_retracting_same _ _ _ _ H).
  - intros x r x' H. apply KL_same. exact (process_retracted_hq _ _ _ H).
  - intros. apply KL_same. reflexivity.
  - exact process_worker_lost_KL.
  - exact lost_fail_running_KL.
  - intros. apply KL_same. reflexivity.
Qed.

Lemma handle_cancel_KL s jid s' : handle_cancel s jid = Ok s' -> KL s s'.
Proof.
  intros H. unfold handle_cancel in H.
  destruct (find_job (hq_jobs s) jid) as [j|]; [|inversion H; subst; apply KL_same; reflexivity].
  destruct (non_finished_task_ids j) as [|i0 ir]; [inversion H; subst; apply KL_same; reflexivity|].
  apply bind_ok in H. destruct H as (s1 & H1 & H). apply bind_ok in H. destruct H as (al & _ & H).
  apply bind_ok in H. destruct H as (s2 & H2 & H). inversion H; subst.
  eapply KL_trans; [apply KL_same; eapply on_cancel_tasks_hq; exact H1|].
  eapply KL_trans; [eapply set_cancel_state_KL; exact H2 | apply KL_same; reflexivity].
Qed.

Lemma handle_close_KL s jid s' : handle_close s jid = Ok s' -> KL s s'.
Proof.
  intros H. unfold handle_close in H.
  destruct (find_job (hq_jobs s) jid) as [j|] eqn:Ej; [|inversion H; subst; apply KL_same; reflexivity].
  destruct (j_open j); [|inversion H; subst; apply KL_same; reflexivity].
  apply bind_ok in H. destruct H as (s1 & H1 & H). inversion H; subst.
  eapply KL_trans; [|eapply KL_trans; [eapply check_termination_KL; exact H1 | apply KL_same; reflexivity]].
  match goal with |- KL s (emit (hq_set_job s ?jx) _) => eapply (KL_set s _ jx (j_tasks j)) end.
  - cbn [j_id]. unfold jt, hq_of. unfold hq_jobs in Ej. rewrite (find_job_id _ _ _ Ej), Ej. reflexivity.
  - apply ldom_refl.
  - intros id. reflexivity.
Qed.

(** A job created with the (fresh) counter as its id leaves all existing jobs alone. *)
Lemma KL_new_job s jid open mf cnt' :
  jt s jid = None -> KL s (hq_with s (set_job (hq_jobs s) (mkJob jid open [] 0 0 0 0 0 false mf)) cnt').
Proof.
  intros Hn id l Hl. exists l. split; [|apply ldom_refl].
  unfold jt, hq_of, hq_with, hq_jobs in *. cbn. rewrite find_job_set. cbn [j_id].
  destruct (N.eqb id jid) eqn:E; [apply N.eqb_eq in E; subst id; rewrite Hn in Hl; discriminate | exact Hl].
Qed.

Lemma attach_ids_ldom ids : forall j j', attach_ids j ids = Ok j' -> j_id j' = j_id j /\ ldom (j_tasks j) (j_tasks j').
Proof.
  intros j j' H. destruct (attach_ids_find ids j j' H) as [I F].
  split; [exact I|]. intros k Hk. rewrite F. destruct (n_mem k ids); [discriminate | exact Hk].
Qed.
