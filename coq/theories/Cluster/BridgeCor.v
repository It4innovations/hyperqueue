(** Bridge, part 6: system-level restart corollaries (C10 over the whole system model), the
    non-vacuity examples, and the witnesses against the restart halves of C06 / C07.

    [sys_restore_partial] composes [BridgeInv.sys_journal_producible_partial] with
    [Journal.RestoreProofs.restore_refines]: for every history of the system model whose start /
    finish / worker records the journal machine accepts (executable hypothesis, true on every
    history evaluated), restoring from the history's journal SUCCEEDS and the restored state is the
    abstraction of a [G] related to the final job layer.  [sys_restore_jobs] spells this out:
    the restored job-id counter is the server's; every job without completion date is restored
    with the same open flag and, task by task, the recorded outcome (pending tasks are waiting). *)
From HQ Require Import Base.Prelude Cluster.Types Cluster.Core Cluster.Reactor Cluster.Worker Cluster.Server Cluster.Sys Cluster.ProofsJob Cluster.ProofsMore Cluster.ProofsStep Cluster.ProofsOnce Cluster.StartFin Cluster.StartFin2 Cluster.NoPanicU0 Cluster.SilentCancel Cluster.DepOrderAll Cluster.AbortCauseAll.
From HQ Require Journal.Event Journal.Restore Journal.Gen Journal.Maps Journal.RestoreProofs.
From HQ Require Import Cluster.Bridge Cluster.BridgeRel Cluster.BridgeEv Cluster.BridgeInv.
From Coq Require Import ZArith Lia.
Local Open Scope N_scope.

Theorem sys_restore_partial : forall ops reserve maxfill u s evs,
  jrun (init_sys reserve maxfill) ops = Ok (s, evs) ->
  core_records_accepted u evs = true ->
  exists r g, Restore.restore (journal_of u evs) = Ok r /\ Gen.view r = Gen.abs g /\ bridge_rel_job s g.
Proof.
  intros ops reserve maxfill u s evs H Hc.
  destruct (sys_journal_producible_partial _ _ _ _ _ _ H Hc) as (g & Hg & HR).
  destruct (RestoreProofs.restore_refines _ _ Hg) as (r & Hr & Hv). exists r, g. auto.
Qed.

Definition rclass (v : jstate) : Restore.tstate :=
  match v with
  | JW | JR => Restore.TWaiting
  | JF => Restore.TFinished
  | JX => Restore.TFailed
  | JC => Restore.TCanceled
  | JA => Restore.TAborted
  end.

Lemma gclass_st v x : st_rel v x -> Gen.gclass x = rclass v.
Proof. destruct v; cbn; intros H; subst; try reflexivity; destruct x; try discriminate; reflexivity. Qed.

Lemma lookup_map_class t (m : Event.map Gen.GTask) :
  Event.lookup t (List.map (fun tv => (fst tv, Gen.gclass (Gen.gt_state (snd tv)))) m)
  = option_map (fun x => Gen.gclass (Gen.gt_state x)) (Event.lookup t m).
Proof. induction m as [|[k v] r IH]; cbn; [reflexivity|]. destruct (N.eqb t k); [reflexivity | exact IH]. Qed.

Theorem sys_restore_jobs : forall ops reserve maxfill u s evs,
  jrun (init_sys reserve maxfill) ops = Ok (s, evs) ->
  core_records_accepted u evs = true ->
  exists r, Restore.restore (journal_of u evs) = Ok r
    /\ Restore.r_job_counter r = h_counter (s_hq s)
    /\ forall j jb, find_job (h_jobs (s_hq s)) j = Some jb -> j_completed jb = false ->
         exists sj, In sj (Restore.r_jobs r) /\ Restore.sj_id sj = j /\ Restore.sj_open sj = j_open jb
           /\ forall t, Event.lookup t (Restore.sj_tasks sj) = option_map rclass (jt_find (j_tasks jb) t).
Proof.
  intros ops reserve maxfill u s evs H Hc.
  destruct (sys_journal_producible_partial _ _ _ _ _ _ H Hc) as (g & Hg & HR).
  destruct (RestoreProofs.restore_refines _ _ Hg) as (r & Hr & Hv). exists r. split; [exact Hr|].
  assert (Hjobs : Restore.r_jobs r = List.map Gen.abs_job (Gen.g_jobs g)) by (apply (f_equal Gen.ar_jobs) in Hv; exact Hv).
  assert (Hcnt : Restore.r_job_counter r = Gen.g_max_job g + 1) by (apply (f_equal Gen.ar_job_counter) in Hv; exact Hv).
  split; [rewrite Hcnt; exact (proj2 HR)|].
  intros j jb Hf Hcm. destruct (RelJ_job _ _ _ _ HR Hf Hcm) as (gj & Hl & (Ho & Hn & Ht)).
  exists (Gen.abs_job (j, gj)). split; [rewrite Hjobs; apply in_map; apply Maps.lookup_in; exact Hl|].
  split; [reflexivity|]. split; [exact Ho|].
  intros t. cbn [Gen.abs_job Restore.sj_tasks]. rewrite lookup_map_class. specialize (Ht t).
  destruct (jt_find (j_tasks jb) t) as [v|], (Event.lookup t (Gen.gj_tasks gj)) as [x|]; cbn [option_map]; try contradiction; [|reflexivity].
  rewrite (gclass_st _ _ Ht). reflexivity.
Qed.

Definition full_check (ops : list op) : bool :=
  match jrun (init_sys 0 2) ops with
  | Ok (s, evs) =>
      core_records_accepted 7 evs &&
      match Gen.grun Gen.g0 (journal_of 7 evs) with Some g => bridge_ok s g | None => false end
  | _ => false
  end.

(** A task is started on worker 1, worker 1 is lost, the task is restarted on worker 2 and finishes
    ([StartFin2.restart_ops]); and the histories of other developments (prefill, retract races,
    redirects, multi-node, crash limits, cancel, dependencies, max-fails aborts). *)
Example bridge_examples :
  forallb full_check [StartFin2.restart_ops; NoPanicU0.h_plain; NoPanicU0.h_prefill; NoPanicU0.h_retract_race; NoPanicU0.h_redirect;
                      NoPanicU0.h_misc; NoPanicU0.h_mn; ProofsOnce.once_ops; StartFin.fail_launch_ops; StartFin.fail_crash_ops;
                      StartFin.fail_crash_mn_ops; SilentCancel.cancel_ops; DepOrderAll.dep_ops; AbortCauseAll.ac_lim_ops] = true.
Proof. vm_compute. reflexivity. Qed.

Example sys_restore_example : exists s evs r,
  jrun (init_sys 0 2) StartFin2.restart_ops = Ok (s, evs) /\ core_records_accepted 7 evs = true
  /\ Restore.restore (journal_of 7 evs) = Ok r /\ Restore.r_job_counter r = 2 /\ Restore.r_jobs r = [].
Proof. do 3 eexists. split; [vm_compute; reflexivity|]. split; [vm_compute; reflexivity|]. split; [vm_compute; reflexivity|]. split; reflexivity. Qed.

(** What the restored server hands to the core for task [t]: (next instance id, crash counter),
    (0, 0) when the journal has no adjustment for it. *)
Definition restored_adjust (r : Restore.Restored) (t : tid) : N * N :=
  match find (fun b => N.eqb (Restore.b_job b) (fst t) && Event.mem (snd t) (Restore.b_adjust b)) (Restore.r_batches r) with
  | Some b => match Event.lookup (snd t) (Restore.b_adjust b) with Some v => v | None => (0, 0) end
  | None => (0, 0)
  end.

(** C07, restart half: "the restored crash counter of a pending task equals the core's". *)
Definition C07_restart_full : Prop := forall ops reserve maxfill u s evs r ct,
  jrun (init_sys reserve maxfill) ops = Ok (s, evs) -> Restore.restore (journal_of u evs) = Ok r ->
  In ct (c_tasks (s_core s)) -> snd (restored_adjust r (t_id ct)) = t_crash ct.

(** A multi-node task is placed on workers 1 and 2; its root worker 1 is lost (connection lost)
    before its "running" message was processed.  The core counts a crash (counter 1, instance 1),
    but the job layer never saw the task running: the journal holds no TaskStarted, restore counts
    nothing (counter 0, instance 0). *)
Definition mn_lost_ops : list op :=
  [OpConnect [20000; 0; 0] 0; OpConnect [20000; 0; 0] 0;
   OpSubmit None [] None (mkRq 2 [0; 0; 0]) 0%Z (CMax 5) false None;
   OpSched (mkSol [] [(0, 0, [[1; 2]])] [1; 2] []);
   OpLost 1 1 [] [] [(1, 0)]].

Theorem C07_restart_refuted : ~ C07_restart_full.
Proof.
  intros HF.
  assert (W : exists s evs r ct, jrun (init_sys 0 2) mn_lost_ops = Ok (s, evs) /\ Restore.restore (journal_of 7 evs) = Ok r
                /\ In ct (c_tasks (s_core s)) /\ snd (restored_adjust r (t_id ct)) <> t_crash ct).
  { do 4 eexists. split; [vm_compute; reflexivity|]. split; [vm_compute; reflexivity|]. split; [left; reflexivity|].
    vm_compute. discriminate. }
  destruct W as (s & evs & r & ct & E & Er & Hin & Hne). exact (Hne (HF _ _ _ _ _ _ _ _ E Er Hin)).
Qed.

Theorem crash_link_refuted : ~ crash_link_full.
Proof.
  intros HF.
  assert (W : exists s evs g, jrun (init_sys 0 2) mn_lost_ops = Ok (s, evs) /\ Gen.grun Gen.g0 (journal_of 7 evs) = Some g
                /\ crash_exact_b s g = false).
  { do 3 eexists. split; [vm_compute; reflexivity|]. split; vm_compute; reflexivity. }
  destruct W as (s & evs & g & E & Eg & Hne). rewrite (HF _ _ _ _ _ _ _ E Eg) in Hne. discriminate.
Qed.

(** C06, restart half: "the restored next instance id of a pending task exceeds every instance id
    under which the task was launched in the history". *)
Definition C06_restart_full : Prop := forall ops reserve maxfill u s outs evs r l,
  run (init_sys reserve maxfill) ops = Ok (s, outs) -> jrun (init_sys reserve maxfill) ops = Ok (s, evs) ->
  Restore.restore (journal_of u evs) = Ok r ->
  In (OLaunch l) outs -> find_task (c_tasks (s_core s)) (l_t l) <> None ->
  l_inst l < fst (restored_adjust r (l_t l)).

(** The worker launches the task (instance 0); the server stops before it processes the worker's
    "running" message: the journal has no TaskStarted record, the restored server hands the task
    out with instance 0 again. *)
Definition launch_unreported_ops : list op :=
  [OpConnect [20000; 0; 0] 0;
   OpSubmit None [] None once_rq 0%Z CUnl false None;
   OpSched (mkSol [(0, 0, [(1, 1)])] [] [1] []);
   OpDDown 1 []; OpDDown 1 []].

Theorem C06_restart_refuted : ~ C06_restart_full.
Proof.
  intros HF.
  assert (W : exists s outs r l, run (init_sys 0 2) launch_unreported_ops = Ok (s, outs)
                /\ Restore.restore (journal_of 7 (jevents_of_run (init_sys 0 2) launch_unreported_ops)) = Ok r
                /\ In (OLaunch l) outs /\ find_task (c_tasks (s_core s)) (l_t l) <> None
                /\ ~ l_inst l < fst (restored_adjust r (l_t l))).
  { do 4 eexists. split; [vm_compute; reflexivity|]. split; [vm_compute; reflexivity|].
    split; [do 6 right; left; reflexivity|]. split; vm_compute; [discriminate | intros X; discriminate X]. }
  destruct W as (s & outs & r & l & E & Er & Hin & Hft & Hne).
  exact (Hne (HF _ _ _ 7 _ _ _ _ l E (run_jrun _ _ _ _ E) Er Hin Hft)).
Qed.

Print Assumptions sys_restore_partial.
Print Assumptions sys_restore_jobs.
Print Assumptions C07_restart_refuted.
Print Assumptions C06_restart_refuted.
Print Assumptions crash_link_refuted.
