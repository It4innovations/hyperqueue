(** C13, atomic submits: a submit that is answered with an error changes nothing; a submit that is
    accepted registers every one of its ids in the job (Waiting) - and, by the bijection theorem,
    hands every one of them to the scheduler. *)
From HQ Require Import Base.Prelude Cluster.Types Cluster.Core Cluster.Reactor Cluster.Worker Cluster.Server Cluster.Sys Cluster.ProofsJob Cluster.ProofsStep Cluster.ProofsOnce.
From Coq Require Import ZArith Lia.
Local Open Scope N_scope.

Definition is_submit_err (o : out) : bool := match o with OResp (RSubmitErr _ _) => true | _ => false end.
Definition is_submit_ok (o : out) : bool := match o with OResp (RSubmitOk _ _ _) => true | _ => false end.

Lemma existsb_app_one {A} (f : A -> bool) l x : existsb f (l ++ [x]) = existsb f l || f x.
Proof. rewrite existsb_app. cbn. rewrite orb_false_r. reflexivity. Qed.

Lemma submit_tail_outs s4 jid ids tasks s' :
  submit_tail s4 jid ids tasks = Ok s' -> exists r, snd s' = snd s4 ++ [OResp r] /\ is_submit_ok (OResp r) = true.
Proof.
  unfold submit_tail. intros H. apply bind_ok in H. destruct H as (j & _ & H). apply bind_ok in H. destruct H as (j' & _ & H).
  apply bind_ok in H. destruct H as (s6 & H6 & H).
  unfold submit_ok_resp in H. apply bind_ok in H. destruct H as (jx & _ & H). inversion H; subst.
  eexists. cbn [snd emit]. rewrite (on_new_tasks_snd _ _ _ H6). split; reflexivity.
Qed.

Theorem submit_array_rejected_no_effect s jobsel ids entries rq prio cl tlim mf s' outs :
  step s (OpSubmit jobsel ids entries rq prio cl tlim mf) = Ok (s', outs) ->
  existsb is_submit_err outs = true -> s' = s.
Proof.
  cbn [step]. intros H He. destruct (bad_submit_lengths _ _); [inversion H; reflexivity|].
  destruct (handle_submit_array_spec _ _ _ _ _ _ _ _ _ _ H) as [(c & a & E)|(jid & is_new & ids' & s4 & rqi & _ & _ & Erq & Hc')];
    [inversion E; reflexivity|].
  (* accepted: the outputs are the submit event and the RSubmitOk response, never an error *)
  exfalso. destruct (submit_tail_outs _ _ _ _ _ Hc') as (r & Ho & Hr). cbn [snd] in Ho.
  pose proof (get_or_create_rq_snd (submit_job (s, []) jid is_new (N.of_nat (length ids')) mf) rq) as S4.
  rewrite Erq in S4. cbn [fst] in S4.
  rewrite Ho, S4, existsb_app_one in He. destruct r; try discriminate.
  unfold submit_job in He. destruct is_new; discriminate.
Qed.

Theorem submit_graph_rejected_no_effect s jobsel rqs ts mf s' outs :
  step s (OpSubmitG jobsel rqs ts mf) = Ok (s', outs) ->
  existsb is_submit_ok outs = false -> s' = s.
Proof.
  cbn [step]. intros H He. destruct (bad_graph_rq _ _); [inversion H; reflexivity|]. destruct (dead_dep _ _ _); [inversion H; reflexivity|].
  destruct (handle_submit_graph_spec _ _ _ _ _ _ H) as [(r & E)|(jid & is_new & s4 & rqis & tasks & _ & _ & _ & Hc')];
    [inversion E; reflexivity|].
  exfalso. destruct (submit_tail_outs _ _ _ _ _ Hc') as (r & Ho & Hr). cbn [snd] in Ho.
  rewrite Ho, existsb_app_one, Hr, orb_true_r in He. discriminate.
Qed.
