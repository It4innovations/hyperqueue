(** C01 for the whole system model: an outcome is final.  Along ANY history of [Sys.step]
    operations, once the job layer has recorded an outcome (finished / failed / canceled / aborted)
    for a task, every later state shows the same outcome, or the task's whole job has been
    forgotten - and a forgotten job id is never used again. *)
From HQ Require Import Base.Prelude Cluster.Types Cluster.Core Cluster.Reactor Cluster.Worker Cluster.Server Cluster.Sys Cluster.Monitors Cluster.ProofsJob Cluster.ProofsMore Cluster.ProofsTerminal Cluster.ProofsStep.
From HQ Require Import Cluster.ModelFacts.
From Coq Require Import ZArith Lia.
Require Import ZifyBool ZifyN.
From HQ Require Import Cluster.RejHyp Cluster.StepShape.
Local Open Scope N_scope.

Arguments N.add : simpl never.
Arguments N.sub : simpl never.

Definition cnt_of (s : st) : N := h_counter (hq_of s).
Definition absent (s : st) (id : N) : Prop := find_job (h_jobs (hq_of s)) id = None.
Definition fresh (s : st) : Prop := forall j, In j (h_jobs (hq_of s)) -> j_id j < cnt_of s.

Record G (s s' : st) : Prop := mkG {
  g_tpres : forall t, tpres s s' t;
  g_absent : forall id, id < cnt_of s -> absent s id -> absent s' id;
  g_cnt : cnt_of s <= cnt_of s';
  g_fresh : fresh s -> fresh s'
}.

Lemma task_state_job s t v : task_state s t = Some v -> exists j, find_job (h_jobs (hq_of s)) (fst t) = Some j.
Proof. unfold task_state. destruct (find_job _ (fst t)) as [j|]; [eauto | discriminate]. Qed.

(** Transitivity needs freshness of the first state: the job of a terminal task has an id below
    the counter, so once absent it stays absent. *)
Lemma G_trans s1 s2 s3 : fresh s1 -> G s1 s2 -> G s2 s3 -> G s1 s3.
Proof.
  intros F [T1 A1 C1 F1] [T2 A2 C2 F2]. constructor.
  - intros t v Hv Ht. destruct (T1 t v Hv Ht) as [H|H]; [exact (T2 t v H Ht)|].
    right. apply A2; [|exact H].
    destruct (task_state_job _ _ _ Hv) as (j & Hj).
    pose proof (F _ (find_job_in _ _ _ Hj)) as Hlt. rewrite (find_job_id _ _ _ Hj) in Hlt. unfold cnt_of in *. lia.
  - intros id Hlt Ha. apply A2; [unfold cnt_of in *; lia | apply A1; assumption].
  - lia.
  - auto.
Qed.

Lemma in_find js j : In j js -> exists j', find_job js (j_id j) = Some j'.
Proof.
  induction js as [|h r IH]; [intros []|]. intros [->|H]; cbn [find_job].
  - rewrite N.eqb_refl. eauto.
  - destruct (N.eqb (j_id j) (j_id h)); [eauto | auto].
Qed.

Lemma fresh_from_absent s s' :
  (forall id, absent s id -> absent s' id) -> cnt_of s' = cnt_of s -> fresh s -> fresh s'.
Proof.
  intros A C F j Hj. destruct (in_find _ _ Hj) as (j' & Hf).
  destruct (find_job (h_jobs (hq_of s)) (j_id j)) as [j0|] eqn:E.
  - pose proof (F _ (find_job_in _ _ _ E)) as Hlt. rewrite (find_job_id _ _ _ E) in Hlt. rewrite C. exact Hlt.
  - specialize (A _ E). unfold absent in A. congruence.
Qed.

Lemma G_JP s s' : JP s s' -> G s s'.
Proof.
  intros (T & K & C). constructor; [exact T | intros id _ Ha; apply K; exact Ha | unfold cnt_of; rewrite C; lia|].
  apply fresh_from_absent; [exact K | exact C].
Qed.

Lemma G_same s s' : hq_of s' = hq_of s -> G s s'.
Proof. intros E. apply G_JP, JP_same, E. Qed.

Lemma G_refl s : G s s.
Proof. apply G_same. reflexivity. Qed.

Lemma cnt_set_job s j : cnt_of (hq_set_job s j) = cnt_of s. Proof. reflexivity. Qed.
Lemma cnt_emit s o : cnt_of (emit s o) = cnt_of s. Proof. reflexivity. Qed.

Lemma G_started s t i ws rv s' : process_task_started s t i ws rv = Ok s' -> G s s'.
Proof. intros H. exact (G_JP _ _ (process_task_started_JP _ _ _ _ _ _ H)). Qed.
Lemma G_finished s t s' : process_task_finished s t = Ok s' -> G s s'.
Proof. intros H. exact (G_JP _ _ (process_task_finished_JP _ _ _ H)). Qed.
Lemma G_failed s t ab k s' ids : process_task_failed s t ab k = Ok (s', ids) -> G s s'.
Proof. intros H. exact (G_JP _ _ (process_task_failed_JP _ _ _ _ _ _ H)). Qed.
Lemma G_worker_lost s w running reason s' : process_worker_lost s w running reason = Ok s' -> G s s'.
Proof.
  unfold process_worker_lost. intros H. apply bind_ok in H. destruct H as (s1 & H1 & H). inversion H; subst.
  exact (G_JP _ _ (JP_emit _ _ _ (set_waiting_all_JP _ _ _ H1))).
Qed.

Lemma G_set_cancel s jid ids s' : set_cancel_state s jid ids = Ok s' -> G s s'.
Proof. intros H. exact (G_JP _ _ (set_cancel_state_JP _ _ _ _ H)). Qed.

Lemma fresh_same s s' : hq_of s' = hq_of s -> fresh s -> fresh s'.
Proof. intros E F. apply (g_fresh _ _ (G_same _ _ E)). exact F. Qed.

Lemma G_task_failed s w id k s' : fresh s -> task_failed s w id k = Ok s' -> G s s'.
Proof.
  intros F Hc. destruct (task_failed_job _ _ _ _ _ Hc) as [->|(s0 & ab & s1 & ids & Q & _ & Hf & Hs')]; [apply G_refl|].
  assert (G01 : G s s1) by (eapply G_trans; [exact F | apply G_same; exact Q | eapply G_failed; exact Hf]).
  destruct Hs' as [->|Hs']; [exact G01|].
  eapply G_trans; [exact F | exact G01 | apply G_same; eapply on_cancel_tasks_hq; exact Hs'].
Qed.

Lemma G_task_finished s w id s' b : fresh s -> task_finished s w id = Ok (s', b) -> G s s'.
Proof.
  intros F Hc. destruct (task_finished_job _ _ _ _ _ Hc) as [->|(s0 & s1 & c3 & ret & s2 & c4 & Q & _ & Hf & Hr & ->)]; [apply G_refl|].
  eapply G_trans; [exact F | eapply G_trans; [exact F | apply G_same; exact Q | eapply G_finished; exact Hf]|].
  apply G_same. exact (process_retracted_hq _ _ _ Hr).
Qed.

Lemma G_task_running s w id rv s' b : fresh s -> task_running s w id rv = Ok (s', b) -> G s s'.
Proof.
  intros F Hc. destruct (task_running_started _ _ _ _ _ _ Hc) as [->|(s1 & i & ws & Q & _ & Hs)]; [apply G_refl|].
  eapply G_trans; [exact F | apply G_same; exact Q | eapply G_started; exact Hs].
Qed.

(** [G] under its side condition is reflexive and transitive: the form the walk of [StepShape] takes. *)
Definition GF (s s' : st) : Prop := fresh s -> G s s'.
Lemma GF_refl s : GF s s.
Proof. intros _. apply G_refl. Qed.
Lemma GF_trans a b c : GF a b -> GF b c -> GF a c.
Proof. intros A B F. pose proof (A F) as G1. exact (G_trans _ _ _ F G1 (B (g_fresh _ _ G1 F))). Qed.
Lemma GF_same s s' : hq_of s' = hq_of s -> GF s s'.
Proof. intros E _. apply G_same, E. Qed.

Lemma G_apply_one s w u s' n : apply_one s w u = Ok (s', n) -> GF s s'.
Proof.
  apply (apply_one_walk GF).
  - intros x w0 id x' b X F. exact (G_task_finished _ _ _ _ _ F X).
  - intros x w0 id k x' X F. exact (G_task_failed _ _ _ _ _ F X).
  - intros x w0 id rv x' b X F. exact (G_task_running _ _ _ _ _ _ F X).
  - intros x w0 id rv x' b X. exact (GF_same _ _ (task_reject_same _ _ _ _ _ _ X)).
  - intros x w0 rq rv x' X. exact (GF_same _ _ (request_enabled_same _ _ _ _ _ X)).
Qed.

Lemma G_on_task_update s w us s' : fresh s -> on_task_update s w us = Ok s' -> G s s'.
Proof.
  intros F Hc. exact (on_task_update_rel GF GF_refl GF_trans G_apply_one s w us s' (fun x => GF_same x (ask_scheduling x) eq_refl) Hc F).
Qed.

Lemma G_lost_fail_running l : forall s reason s', fresh s -> lost_fail_running s reason l = Ok s' -> G s s'.
Proof.
  intros s reason s' F Hc. revert F.
  refine (lost_fail_running_rel GF GF_refl GF_trans _ _ l s reason s' Hc).
  - intros. apply GF_same. reflexivity.
  - intros s0 id k s1 _ Hf F. exact (G_task_failed _ _ _ _ _ F Hf).
Qed.

Lemma G_on_remove_worker s w reason a p t s' :
  fresh s -> on_remove_worker s w reason a p t = Ok s' -> G s s'.
Proof.
  intros F Hc. revert F.
  refine (on_remove_worker_rel GF GF_trans _ _ _ _ _ _ _ s w reason a p t s' Hc); try (intros; apply GF_same; reflexivity).
  - intros l s0 w0 s1 X. exact (GF_same _ _ (lost_retracting_same _ _ _ _ X)).
  - intros s0 r s1 X. exact (GF_same _ _ (process_retracted_hq _ _ _ X)).
  - intros s0 w0 running r s1 X _. exact (G_worker_lost _ _ _ _ _ X).
  - intros l s0 r s1 X F. exact (G_lost_fail_running _ _ _ _ F X).
Qed.

Lemma find_job_del js id id' : id' <> id -> find_job (del_job js id) id' = find_job js id'.
Proof.
  intros Hne. unfold del_job. induction js as [|h r IH]; cbn [filter find_job]; [reflexivity|].
  destruct (N.eqb id (j_id h)) eqn:E; cbn [negb].
  - apply N.eqb_eq in E. destruct (N.eqb id' (j_id h)) eqn:E2; [apply N.eqb_eq in E2; congruence | exact IH].
  - cbn [find_job]. destruct (N.eqb id' (j_id h)); [reflexivity | exact IH].
Qed.

Lemma find_job_del_same js id : find_job (del_job js id) id = None.
Proof.
  unfold del_job. induction js as [|h r IH]; cbn [filter find_job]; [reflexivity|].
  destruct (N.eqb id (j_id h)) eqn:E; cbn [negb]; [exact IH|]. cbn [find_job]. rewrite E. exact IH.
Qed.

Lemma G_forget s jid s' : handle_forget s jid = Ok s' -> G s s'.
Proof.
  intros Hc. unfold handle_forget in Hc.
  destruct (find_job (hq_jobs s) jid) as [j|] eqn:Ef; [|inversion Hc; subst; apply G_same; reflexivity].
  inv_binds Hc. destruct (negb (j_open j) && _); inversion Hc; subst; [|apply G_same; reflexivity].
  constructor.
  - intros t v Hv Ht. unfold task_state in *. rewrite emit_hq. unfold hq_of, hq_with in *. cbn in *.
    destruct (N.eq_dec (fst t) jid) as [Eq|Ne].
    + right. rewrite Eq. apply find_job_del_same.
    + left. rewrite find_job_del by exact Ne. exact Hv.
  - intros id _ Ha. unfold absent in *. rewrite emit_hq. unfold hq_of, hq_with in *. cbn in *.
    destruct (N.eq_dec id jid) as [->|Ne]; [apply find_job_del_same | rewrite find_job_del by exact Ne; exact Ha].
  - unfold cnt_of. rewrite emit_hq. unfold hq_of, hq_with, hq_counter. cbn. lia.
  - intros F x Hx. rewrite emit_hq in Hx. unfold cnt_of. rewrite emit_hq. unfold hq_of, hq_with, hq_counter, hq_jobs in *. cbn in *.
    apply del_job_in in Hx. apply F. exact Hx.
Qed.

Lemma G_close s jid s' : handle_close s jid = Ok s' -> G s s'.
Proof. intros H. exact (G_JP _ _ (handle_close_JP _ _ _ H)). Qed.

Lemma G_cancel s jid s' : handle_cancel s jid = Ok s' -> G s s'.
Proof. intros H. exact (G_JP _ _ (handle_cancel_JP _ _ _ H)). Qed.

(** A new job takes the counter's id: no existing job has it. *)
Lemma G_new_job s jid0 jb cnt' :
  fresh s -> j_id jb = cnt_of s -> cnt_of s < cnt' -> jid0 = cnt_of s ->
  G s (hq_with s (set_job (hq_jobs s) jb) cnt').
Proof.
  intros F Hid Hc _. constructor.
  - intros t v Hv Ht. left. unfold task_state in *. unfold hq_of, hq_with, hq_jobs in *. cbn in *.
    rewrite find_job_set, Hid.
    destruct (N.eqb (fst t) (cnt_of s)) eqn:E; [|exact Hv]. exfalso.
    destruct (find_job (h_jobs (s_hq (fst s))) (fst t)) as [j|] eqn:Ej; [|discriminate].
    pose proof (F _ (find_job_in _ _ _ Ej)) as Hlt. rewrite (find_job_id _ _ _ Ej) in Hlt. apply N.eqb_eq in E. lia.
  - intros id Hlt Ha. unfold absent in *. unfold hq_of, hq_with, hq_jobs in *. cbn in *. rewrite find_job_set, Hid.
    destruct (N.eqb id (cnt_of s)) eqn:E; [apply N.eqb_eq in E; unfold cnt_of, hq_of in *; lia | exact Ha].
  - unfold cnt_of at 2. unfold hq_of, hq_with. cbn. lia.
  - intros _ x Hx. unfold cnt_of. unfold hq_of, hq_with, hq_jobs in *. cbn in *. apply set_job_in in Hx.
    destruct Hx as [->|Hx]; [rewrite Hid; exact Hc | specialize (F _ Hx); unfold cnt_of, hq_of in *; lia].
Qed.

Lemma G_open s mf s' : fresh s -> handle_open s mf = Ok s' -> G s s'.
Proof.
  intros F Hc. unfold handle_open in Hc. inversion Hc; subst.
  match goal with |- G s (emit (emit ?s1 _) _) => eapply (G_trans s s1); [exact F | | apply G_same; reflexivity] end.
  apply (G_new_job s (cnt_of s)); [exact F | reflexivity | unfold cnt_of, hq_counter, hq_of; lia | reflexivity].
Qed.

Lemma attach_ids_jpres ids : forall j j', attach_ids j ids = Ok j' -> jpres j j'.
Proof.
  induction ids as [|i r IH]; cbn [attach_ids]; intros j j' H; [inversion H; apply jpres_refl|].
  destruct (jt_find (j_tasks j) i) eqn:Ef; [discriminate|].
  eapply jpres_trans; [|apply IH; exact H].
  split; [reflexivity|]. intros t v Hv Ht. cbn.
  destruct (N.eq_dec t i) as [->|Hne]; [congruence | rewrite jt_find_set_other by exact Hne; exact Hv].
Qed.

Lemma G_submit_tail s4 jid ids tasks s' : fresh s4 -> submit_tail s4 jid ids tasks = Ok s' -> G s4 s'.
Proof.
  intros F Hc. unfold submit_tail in Hc. inv_binds Hc.
  match goal with X : hq_get_job s4 jid 222 = Ok ?j, Y : attach_ids ?j _ = Ok ?j' |- _ =>
    assert (G1 : G s4 (hq_set_job s4 j')) by
      (apply G_JP, (JP_set_job s4 j); [exact (hq_get_find _ _ _ _ X) | exact (attach_ids_jpres _ _ _ Y)]) end.
  match goal with X : on_new_tasks _ _ = Ok _ |- _ => apply on_new_tasks_hq in X; rename X into R1 end.
  apply submit_ok_resp_same in Hc. unfold hq_same in Hc.
  eapply G_trans; [exact F | exact G1 | apply G_same; rewrite Hc, R1; reflexivity].
Qed.

Lemma G_submit_job s jid is_new n mf : fresh s -> submit_target s jid is_new -> G s (submit_job s jid is_new n mf).
Proof.
  intros F Ht. unfold submit_job. destruct is_new; [|apply G_same; reflexivity].
  unfold submit_target in Ht. subst jid.
  eapply G_trans; [exact F | apply (G_new_job s (cnt_of s) (mkJob (cnt_of s) false [] 0 0 0 0 0 false mf) (cnt_of s + 1)); [exact F | reflexivity | lia | reflexivity] | apply G_same; reflexivity].
Qed.

Lemma G_submit_array s jobsel ids entries rq prio cl tlim mf s' :
  fresh s -> handle_submit_array s jobsel ids entries rq prio cl tlim mf = Ok s' -> G s s'.
Proof.
  intros F Hc. destruct (handle_submit_array_spec _ _ _ _ _ _ _ _ _ _ Hc) as [(c & a & ->)|(jid & is_new & ids' & s4 & rqi & Ht & _ & Erq & Hc')];
    [apply G_same; reflexivity|].
  pose proof (G_submit_job s jid is_new (N.of_nat (length ids')) mf F Ht) as G3.
  assert (G4 : G s s4) by (eapply G_trans; [exact F | exact G3 | apply G_same; eapply get_or_create_rq_keeps; exact Erq]).
  eapply G_trans; [exact F | exact G4 | eapply G_submit_tail; [apply (g_fresh _ _ G4); exact F | exact Hc']].
Qed.

Lemma G_submit_graph s jobsel rqs ts mf s' :
  fresh s -> handle_submit_graph s jobsel rqs ts mf = Ok s' -> G s s'.
Proof.
  intros F Hc. destruct (handle_submit_graph_spec _ _ _ _ _ _ Hc) as [(r & ->)|(jid & is_new & s4 & rqis & tasks & Ht & Erq & _ & Hc')];
    [apply G_same; reflexivity|].
  pose proof (G_submit_job s jid is_new (N.of_nat (length ts)) mf F Ht) as G3.
  assert (G4 : G s s4) by (eapply G_trans; [exact F | exact G3 | apply G_same; eapply fold_rqs_same; exact Erq]).
  eapply G_trans; [exact F | exact G4 | eapply G_submit_tail; [apply (g_fresh _ _ G4); exact F | exact Hc']].
Qed.

Theorem G_step s o s' outs : fresh (s, []) -> step s o = Ok (s', outs) -> G (s, []) (s', outs).
Proof.
  intros F Hc. revert F.
  refine (step_walk GF (fun _ => True) _ _ _ _ _ _ _ _ _ _ _ _ _ _ _ _ s o s' outs I Hc);
    try (intros; apply GF_same; reflexivity).
  - intros s0 rs g s1 _ X. exact (GF_same _ _ (on_new_worker_same _ _ _ _ X)).
  - intros s0 w r a p t pw s1 _ _ X F. exact (G_on_remove_worker _ _ _ _ _ _ _ F X).
  - intros s0 job ids entries rq prio cl tlim mf s1 _ X F. exact (G_submit_array _ _ _ _ _ _ _ _ _ _ F X).
  - intros s0 job rqs ts mf s1 _ X F. exact (G_submit_graph _ _ _ _ _ _ F X).
  - intros s0 mf s1 _ X F. exact (G_open _ _ _ F X).
  - intros s0 j s1 _ X _. exact (G_close _ _ _ X).
  - intros s0 j s1 _ X _. exact (G_cancel _ _ _ X).
  - intros s0 j s1 _ X _. exact (G_forget _ _ _ X).
  - intros s0 w p m rest s1 _ _ _ X.
    refine (step_up_rel GF s0 w p m rest s1 GF_trans _ _ _ X); [apply GF_same; reflexivity | |].
    + intros x us x' Y F. exact (G_on_task_update _ _ _ _ F Y).
    + intros x ids x' Y. exact (GF_same _ _ (on_retract_response_same _ _ _ _ Y)).
  - intros s0 sol s1 _ _ X. exact (GF_same _ _ (run_scheduling_same _ _ _ X)).
Qed.

Lemma fresh_outs s o1 o2 : fresh (s, o1) -> fresh (s, o2).
Proof. intros F. exact F. Qed.

Theorem G_run ops : forall s s' outs, fresh (s, []) -> run s ops = Ok (s', outs) -> G (s, []) (s', outs).
Proof.
  induction ops as [|o r IH]; cbn [run]; intros s s' outs F Hc; [inversion Hc; subst; apply G_refl|].
  apply bind_ok in Hc. destruct Hc as ([s1 o1] & H1 & Hc).
  apply bind_ok in Hc. destruct Hc as ([s2 o2] & H2 & Hc). inversion Hc; subst.
  pose proof (G_step _ _ _ _ F H1) as G1.
  assert (F1 : fresh (s1, [])) by (apply (fresh_outs s1 o1); apply (g_fresh _ _ G1); exact F).
  pose proof (IH _ _ _ F1 H2) as G2.
  assert (Fo1 : fresh (s1, o1)) by (apply (g_fresh _ _ G1); exact F).
  apply (G_trans (s, []) (s1, o1) (s', o1 ++ o2) F G1).
  apply (G_trans (s1, o1) (s1, []) (s', o1 ++ o2) Fo1); [apply G_same; reflexivity|].
  apply (G_trans (s1, []) (s', o2) (s', o1 ++ o2) F1 G2). apply G_same; reflexivity.
Qed.

(** Main theorem: along any history of the system, a recorded outcome never changes; it can only
    disappear together with its whole (forgotten) job, whose id is never used again. *)
Theorem outcome_final ops1 ops2 reserve maxfill s1 o1 s2 o2 t v :
  run (init_sys reserve maxfill) ops1 = Ok (s1, o1) ->
  run s1 ops2 = Ok (s2, o2) ->
  task_state (s1, []) t = Some v -> terminal v ->
  task_state (s2, []) t = Some v \/ find_job (h_jobs (s_hq s2)) (fst t) = None.
Proof.
  intros H1 H2 Hv Ht.
  assert (F0 : fresh (init_sys reserve maxfill, [])) by (intros j []).
  pose proof (G_run _ _ _ _ F0 H1) as G1.
  assert (F1 : fresh (s1, [])) by (apply (fresh_outs s1 o1); apply (g_fresh _ _ G1); exact F0).
  pose proof (G_run _ _ _ _ F1 H2) as G2.
  destruct (g_tpres _ _ G2 t v Hv Ht) as [H|H]; [left; exact H | right; exact H].
Qed.
