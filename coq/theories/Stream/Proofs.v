(** C19: the reader on the bytes of (possibly cut) writer files returns, per task and channel,
    exactly what the largest instance wrote (or an I/O error for a torn chunk). *)
From HQ Require Import Base.Prelude Gen.Consts Stream.Model Stream.Codec Stream.Index.
Open Scope N_scope.

Definition torn_rec (a : AFile) : option Rec := option_map fst (af_torn a).

Lemma afile_seen_eq a : afile_seen a = af_recs a ++ opt_list (torn_rec a).
Proof. unfold afile_seen, torn_rec. destruct (af_torn a) as [[r d]|]; reflexivity. Qed.

(** [b] are the bytes of a file whose readable content is [a] *)
Definition file_repr (b : bytes) (a : AFile) : Prop :=
  exists tail,
    b = render_file (af_hdr a) (af_recs a) ++ tail
    /\ tail_ok tail (torn_rec a)
    /\ file_header_ok (af_hdr a) = true
    /\ forallb rec_ok (af_recs a) = true
    /\ lenN b + U32_LIMIT < I64_LIMIT.

Definition hdr_len (a : AFile) : N := lenN (enc_file_header (af_hdr a)).

Definition file_les (fidx : N) (a : AFile) : list LE := with_file fidx (locate (hdr_len a) (afile_seen a)).

Fixpoint all_les (n : N) (fs : list AFile) : list LE :=
  match fs with
  | [] => []
  | a :: r => file_les n a ++ all_les (n + 1) r
  end.

Lemma scan_file_spec b a fidx idx :
  file_repr b a -> scan_file fidx b idx = ROk (build (file_les fidx a) idx).
Proof.
  intros (tail & -> & Ht & Hh & Hr & Hb). unfold scan_file, render_file.
  rewrite <- app_assoc. rewrite check_header_enc by assumption.
  unfold file_les. rewrite afile_seen_eq. apply scan_spec; try assumption.
  - lia.
  - unfold render_file in Hb. rewrite <- app_assoc, lenN_app in Hb. unfold hdr_len. lia.
Qed.

Lemma index_files_spec bs : forall fs n idx,
  Forall2 file_repr bs fs -> index_files n bs idx = ROk (build (all_les n fs) idx).
Proof.
  induction bs as [|b bs IH]; intros fs n idx H; inversion H as [|? a ? fs' Hb Hbs]; subst.
  - reflexivity.
  - cbn [index_files all_les]. rewrite (scan_file_spec b a) by assumption. cbn [rbind].
    rewrite (IH fs') by assumption. now rewrite build_app.
Qed.

Lemma lookup_finalize k idx :
  lookup k (finalize idx) = option_map (fun v => sort_insts (rev v)) (lookup k idx).
Proof.
  induction idx as [|[k' v] r IH]; [reflexivity|]. cbn [finalize map lookup fst snd].
  destruct (key_eqb k k'); [reflexivity | exact IH].
Qed.

Lemma create_index_spec bs fs :
  Forall2 file_repr bs fs -> create_index bs = ROk (finalize (build (all_les 0 fs) [])).
Proof. intros H. unfold create_index. now rewrite (index_files_spec bs fs). Qed.

Definition sub_les (k : key) (les : list LE) : list LE := filter (fun e => key_eqb k (le_key e)) les.

Lemma sub_les_app k a b : sub_les k (a ++ b) = sub_les k a ++ sub_les k b.
Proof. apply filter_app. Qed.

Lemma locate_recs pos recs : map snd (locate pos recs) = recs.
Proof. revert pos. induction recs as [|r rs IH]; intros; [reflexivity|]. cbn [locate map snd]. now rewrite IH. Qed.

Lemma file_les_recs n a : map le_rec (file_les n a) = afile_seen a.
Proof.
  unfold file_les, with_file, le_rec. rewrite map_map. cbn [snd].
  rewrite <- (locate_recs (hdr_len a) (afile_seen a)) at 2. reflexivity.
Qed.

Lemma map_filter_comm {A B} (f : A -> B) (p : B -> bool) l :
  map f (filter (fun x => p (f x)) l) = filter p (map f l).
Proof. induction l as [|x l IH]; [reflexivity|]. cbn [filter map]. destruct (p (f x)); cbn [map]; now rewrite IH. Qed.

Lemma sub_insts k L : map le_inst (sub_les k L) = proj_insts k (map le_rec L).
Proof. unfold proj_insts, sub_les. now rewrite <- (map_filter_comm le_rec (of_task k)), map_map. Qed.

Lemma sub_les_insts k n a : map le_inst (sub_les k (file_les n a)) = proj_insts k (afile_seen a).
Proof. now rewrite sub_insts, file_les_recs. Qed.

Lemma filter_single {A} (p : A -> bool) l a :
  filter p l = [a] ->
  exists l1 l2, l = l1 ++ a :: l2 /\ Forall (fun x => p x = false) l1 /\ Forall (fun x => p x = false) l2.
Proof.
  induction l as [|x l IH]; cbn [filter]; [discriminate|]. destruct (p x) eqn:E.
  - intros H. injection H as -> H. exists [], l. split; [reflexivity|]. split; [constructor|].
    clear IH. induction l as [|y l IHl]; [constructor|]. cbn [filter] in H. destruct (p y) eqn:Ey; [discriminate|].
    constructor; auto.
  - intros H. destruct (IH H) as (l1 & l2 & -> & H1 & H2). exists (x :: l1), l2. repeat split; auto.
Qed.

Lemma all_les_app fs1 : forall n fs2,
  all_les n (fs1 ++ fs2) = all_les n fs1 ++ all_les (n + N.of_nat (length fs1)) fs2.
Proof.
  induction fs1 as [|a fs1 IH]; intros n fs2.
  - simpl. now rewrite N.add_0_r.
  - cbn [app all_les length]. rewrite IH, <- app_assoc.
    replace (n + N.of_nat (S (length fs1))) with (n + 1 + N.of_nat (length fs1)) by lia. reflexivity.
Qed.

Lemma all_les_recs fs : forall n, map le_rec (all_les n fs) = all_seen fs.
Proof.
  induction fs as [|a fs IH]; intros n; [reflexivity|].
  cbn [all_les all_seen flat_map]. rewrite map_app, file_les_recs, IH. reflexivity.
Qed.

Lemma sub_all_insts k fs n : map le_inst (sub_les k (all_les n fs)) = proj_insts k (all_seen fs).
Proof. now rewrite sub_insts, all_les_recs. Qed.

Lemma no_inst_recs k i a r : has_inst k i a = false -> In r (afile_seen a) -> of_inst k i r = false.
Proof.
  unfold has_inst. intros H Hin. destruct (of_inst k i r) eqn:E; [|reflexivity].
  assert (existsb (of_inst k i) (afile_seen a) = true) by (apply existsb_exists; eauto). congruence.
Qed.

Lemma no_inst_seen k i fs :
  Forall (fun a => has_inst k i a = false) fs -> forall r, In r (all_seen fs) -> of_inst k i r = false.
Proof.
  intros H r Hr. apply in_flat_map in Hr as (a & Ha & Hr). rewrite Forall_forall in H.
  exact (no_inst_recs k i a r (H a Ha) Hr).
Qed.

Lemma has_inst_false_all k i fs n :
  Forall (fun a => has_inst k i a = false) fs -> Forall (fun e => le_inst e <> i) (sub_les k (all_les n fs)).
Proof.
  intros H. apply Forall_forall. intros e He. apply filter_In in He as [He Hk].
  assert (Hr : In (le_rec e) (all_seen fs)) by (rewrite <- (all_les_recs fs n); now apply in_map).
  apply (no_inst_seen k i fs H) in Hr. unfold of_inst, of_task in Hr.
  change (rec_key (le_rec e)) with (le_key e) in Hr. rewrite Hk in Hr. now apply N.eqb_neq.
Qed.

Lemma match_nonempty {A B} (p : list A) x q (u v : B) l :
  l = p ++ x :: q -> match l with [] => u | _ :: _ => v end = v.
Proof. intros ->. destruct p; reflexivity. Qed.

Lemma sub_les_split k fs1 a fs2 :
  sub_les k (all_les 0 (fs1 ++ a :: fs2))
  = sub_les k (all_les 0 fs1) ++ sub_les k (file_les (N.of_nat (length fs1)) a)
    ++ sub_les k (all_les (N.of_nat (length fs1) + 1) fs2).
Proof. rewrite all_les_app. cbn [all_les]. now rewrite !sub_les_app, N.add_0_l. Qed.

Lemma task_split fs1 a fs2 k i :
  Forall (fun a' => has_inst k i a' = false) fs1 -> Forall (fun a' => has_inst k i a' = false) fs2 ->
  one_block i (proj_insts k (afile_seen a)) = true ->
  blk (sub_les k (all_les 0 (fs1 ++ a :: fs2))) i.
Proof.
  intros H1 H2 Hb. set (n1 := N.of_nat (length fs1)).
  rewrite <- (sub_les_insts k n1 a) in Hb.
  apply one_block_blk in Hb as (l1 & x & m & l2 & Hsub & Hl1 & Hm & Hl2).
  exists (sub_les k (all_les 0 fs1) ++ l1), x, m, (l2 ++ sub_les k (all_les (n1 + 1) fs2)).
  split; [rewrite sub_les_split; fold n1; rewrite Hsub; now rewrite <- !app_assoc|].
  split; [|split; [exact Hm|]].
  - apply Forall_app. split; [now apply has_inst_false_all | assumption].
  - apply Forall_app. split; [assumption | now apply has_inst_false_all].
Qed.

Lemma inst_les_file fs1 a fs2 k i :
  Forall (fun a' => has_inst k i a' = false) fs1 -> Forall (fun a' => has_inst k i a' = false) fs2 ->
  filter (fun e => le_inst e =? i) (sub_les k (all_les 0 (fs1 ++ a :: fs2)))
  = filter (fun e => le_inst e =? i) (sub_les k (file_les (N.of_nat (length fs1)) a)).
Proof.
  intros H1 H2. rewrite sub_les_split, !filter_app.
  rewrite (filter_inst_ne i (sub_les k (all_les 0 fs1))), (filter_inst_ne i (sub_les k (all_les _ fs2)))
    by now apply has_inst_false_all.
  now rewrite app_nil_r.
Qed.

Lemma lookup_index k A :
  lookup k (finalize (build A [])) =
  match sub_les k A with [] => None | l => Some (sort_insts (rev (insts_of l []))) end.
Proof. rewrite lookup_finalize, lookup_build. fold (sub_les k A). now destruct (sub_les k A). Qed.

Lemma inst_contig_split fs k i :
  inst_contig fs k i = true ->
  exists fs1 a fs2, fs = fs1 ++ a :: fs2
    /\ Forall (fun a' => has_inst k i a' = false) fs1 /\ Forall (fun a' => has_inst k i a' = false) fs2
    /\ one_block i (proj_insts k (afile_seen a)) = true.
Proof.
  unfold inst_contig. destruct (filter (has_inst k i) fs) as [|a [|? ?]] eqn:Ef; try discriminate.
  intros Hb. apply filter_single in Ef as (fs1 & fs2 & -> & H1 & H2). now exists fs1, a, fs2.
Qed.

Lemma task_entry fs k i :
  inst_contig fs k i = true ->
  Forall (fun x => x <= i) (proj_insts k (all_seen fs)) ->
  exists fs1 a fs2 x m X,
    fs = fs1 ++ a :: fs2
    /\ lookup k (finalize (build (all_les 0 fs) [])) = Some (X ++ [extend (fresh x) (x :: m)])
    /\ Forall (fun J => in_id J < i) X
    /\ x :: m = filter (fun e => le_inst e =? i) (sub_les k (file_les (N.of_nat (length fs1)) a))
    /\ Forall (fun a' => has_inst k i a' = false) fs1
    /\ Forall (fun a' => has_inst k i a' = false) fs2.
Proof.
  intros Hc Hmax. apply inst_contig_split in Hc as (fs1 & a & fs2 & -> & H1 & H2 & Hb).
  rewrite <- (sub_all_insts k _ 0), Forall_map in Hmax.
  destruct (sorted_last _ i (task_split fs1 a fs2 k i H1 H2 Hb) Hmax) as (X & x & m & HM & Hs & HX).
  exists fs1, a, fs2, x, m, X. split; [reflexivity|]. split; [|split; [exact HX|split; [|split; assumption]]].
  - rewrite lookup_index. revert HM Hs.
    destruct (sub_les k (all_les 0 (fs1 ++ a :: fs2))); [discriminate | now intros _ ->].
  - now rewrite <- HM, inst_les_file.
Qed.

Lemma read_chunks_app b c1 c2 :
  read_chunks b (c1 ++ c2) =
  match read_chunks b c1, read_chunks b c2 with
  | Some x, Some y => Some (x ++ y)
  | _, _ => None
  end.
Proof.
  induction c1 as [|c c1 IH]; cbn [app read_chunks].
  - destruct (read_chunks b c2); reflexivity.
  - destruct (read_chunk b c); [|reflexivity]. rewrite IH.
    destruct (read_chunks b c1); [|reflexivity]. destruct (read_chunks b c2); [|reflexivity].
    now rewrite app_assoc.
Qed.

Lemma trunc32_small n : n < U32_LIMIT -> trunc32 n = n.
Proof. intros H. unfold trunc32. now apply N.mod_small. Qed.

Lemma read_whole pre r tail :
  rec_size r = lenN (r_data r) -> rec_size r < U32_LIMIT ->
  read_chunk (pre ++ enc_chunk_header (r_hdr r) ++ r_data r ++ tail)
             (mkCI (lenN pre + lenN (enc_chunk_header (r_hdr r))) (trunc32 (rec_size r))) = Some (r_data r).
Proof.
  intros Hs Hz. unfold read_chunk. cbn [ci_pos ci_size]. rewrite trunc32_small by assumption.
  rewrite app_assoc, <- lenN_app, dropN_app, Hs, takeN_app. reflexivity.
Qed.

Lemma read_torn pre r d :
  lenN d < rec_size r -> rec_size r < U32_LIMIT ->
  read_chunk (pre ++ enc_chunk_header (r_hdr r) ++ d)
             (mkCI (lenN pre + lenN (enc_chunk_header (r_hdr r))) (trunc32 (rec_size r))) = None.
Proof.
  intros Hd Hz. unfold read_chunk. cbn [ci_pos ci_size]. rewrite trunc32_small by assumption.
  rewrite app_assoc, <- lenN_app, dropN_app, takeN_short; [reflexivity | assumption].
Qed.

Lemma read_located f (p : Rec -> bool) recs : forall pre tail b,
  b = pre ++ render_recs recs ++ tail ->
  forallb rec_ok recs = true ->
  read_chunks b (map le_ci (filter (fun e => p (le_rec e)) (with_file f (locate (lenN pre) recs))))
  = Some (concat (map r_data (filter p recs))).
Proof.
  unfold with_file.
  induction recs as [|r rs IH]; intros pre tail b Hb Hok; [reflexivity|].
  cbn [forallb] in Hok. apply andb_true_iff in Hok as [Hr Hok].
  apply rec_ok_fields in Hr as (_ & Hs & _ & Hz).
  rewrite render_recs_cons, <- !app_assoc in Hb.
  (* the records after [r] start where [r] ends *)
  specialize (IH (pre ++ enc_chunk_header (r_hdr r) ++ r_data r) tail b).
  rewrite <- !app_assoc, !lenN_app, <- Hs, N.add_assoc in IH. specialize (IH Hb Hok).
  cbn [locate map fst snd filter]. change (le_rec (f, lenN pre + lenN (enc_chunk_header (r_hdr r)), r)) with r.
  destruct (p r); [|exact IH].
  cbn [map read_chunks concat]. rewrite IH.
  unfold le_ci, le_pos, le_size, le_rec. cbn [fst snd]. rewrite Hb at 1. now rewrite read_whole.
Qed.

Lemma locate_app a : forall pos b,
  forallb rec_ok a = true ->
  locate pos (a ++ b) = locate pos a ++ locate (pos + lenN (render_recs a)) b.
Proof.
  induction a as [|r a IH]; intros pos b Hok.
  - simpl. now rewrite N.add_0_r.
  - cbn [forallb] in Hok. apply andb_true_iff in Hok as [Hr Hok].
    apply rec_ok_fields in Hr as (_ & Hs & _ & _).
    cbn [app locate]. rewrite IH by assumption. cbn [app]. f_equal. f_equal. f_equal.
    rewrite render_recs_cons, !lenN_app, Hs. lia.
Qed.

Lemma with_file_app f a b : with_file f (a ++ b) = with_file f a ++ with_file f b.
Proof. apply map_app. Qed.

Lemma read_file_chunks b a f (p : Rec -> bool) :
  file_repr b a ->
  read_chunks b (map le_ci (filter (fun e => p (le_rec e)) (file_les f a)))
  = if existsb p (opt_list (torn_rec a)) then None else Some (concat (map r_data (filter p (af_recs a)))).
Proof.
  intros (tail & Hb & Ht & Hh & Hr & Hlim).
  unfold file_les. rewrite afile_seen_eq, locate_app by assumption.
  rewrite with_file_app, filter_app, map_app, read_chunks_app.
  unfold render_file in Hb. rewrite <- app_assoc in Hb.
  unfold hdr_len. rewrite (read_located f p (af_recs a) (enc_file_header (af_hdr a)) tail b Hb Hr).
  destruct Ht as [t Ht | r d Hrok Hd].
  - cbn [opt_list locate with_file map filter read_chunks existsb]. now rewrite app_nil_r.
  - cbn [opt_list locate with_file map filter fst snd existsb le_rec]. rewrite orb_false_r.
    destruct (p r); [|cbn [map read_chunks]; now rewrite app_nil_r].
    cbn [map read_chunks].
    apply rec_ok_fields in Hrok as (_ & _ & _ & Hz).
    replace (read_chunk b _) with (@None bytes); [reflexivity|]. symmetry.
    unfold le_ci, le_pos, le_size, le_rec. cbn [fst snd].
    rewrite Hb. rewrite app_assoc, <- lenN_app. apply read_torn; assumption.
Qed.

Definition omax (acc : option N) (x : N) : option N :=
  Some (match acc with Some m => N.max m x | None => x end).

Lemma max_inst_ids k recs : max_inst k recs = fold_left omax (proj_insts k recs) None.
Proof.
  unfold max_inst, proj_insts. generalize (@None N).
  induction recs as [|r recs IH]; intros acc; [reflexivity|]. cbn [fold_left filter].
  rewrite IH. destruct (of_task k r); [destruct acc|]; reflexivity.
Qed.

Lemma omax_fold l : forall m,
  exists i, fold_left omax l (Some m) = Some i /\ m <= i /\ Forall (fun x => x <= i) l /\ (i = m \/ In i l).
Proof.
  induction l as [|x l IH]; intros m.
  - exists m. split; [reflexivity|]. split; [lia|]. split; [constructor | now left].
  - change (fold_left omax (x :: l) (Some m)) with (fold_left omax l (Some (N.max m x))).
    destruct (IH (N.max m x)) as (i & E & Hm & Hl & Hi). exists i.
    split; [exact E|]. split; [lia|]. split; [constructor; [lia | exact Hl]|].
    destruct Hi as [->|Hi]; [|right; now right].
    destruct (N.max_spec m x) as [[_ ->]|[_ ->]]; [right; now left | now left].
Qed.

Lemma max_inst_spec k recs i :
  max_inst k recs = Some i -> Forall (fun x => x <= i) (proj_insts k recs) /\ In i (proj_insts k recs).
Proof.
  rewrite max_inst_ids. destruct (proj_insts k recs) as [|x l]; [discriminate|].
  change (fold_left omax (x :: l) None) with (fold_left omax l (Some x)).
  destruct (omax_fold l x) as (j & -> & Hx & Hl & Hj). intros [= <-].
  split; [constructor; assumption|]. destruct Hj as [->|Hj]; [now left | now right].
Qed.

Lemma max_inst_none k recs : max_inst k recs = None -> proj_insts k recs = [].
Proof.
  rewrite max_inst_ids. destruct (proj_insts k recs) as [|x l]; [reflexivity|].
  change (fold_left omax (x :: l) None) with (fold_left omax l (Some x)).
  destruct (omax_fold l x) as (j & -> & _). discriminate.
Qed.

Definition picks (k : key) (i : N) (p : Rec -> bool) : Prop := forall r, p r = true -> of_inst k i r = true.

Lemma picks_of_inst k i : picks k i (of_inst k i).
Proof. intros r H. exact H. Qed.

Lemma picks_end k i : picks k i (fun r => of_inst k i r && (rec_size r =? 0)).
Proof. intros r H. now apply andb_true_iff in H. Qed.

Lemma picks_is_data k i ch : picks k i (is_data k i ch).
Proof. unfold is_data. intros r H. apply andb_true_iff in H as [H _]. now apply andb_true_iff in H. Qed.

Lemma picks_false k i p l :
  picks k i p -> (forall r, In r l -> of_inst k i r = false) -> forall r, In r l -> p r = false.
Proof.
  intros Hp H r Hr. destruct (p r) eqn:E; [|reflexivity]. apply Hp in E. rewrite (H r Hr) in E. discriminate.
Qed.

Lemma filter_none {A} (p : A -> bool) l : (forall r, In r l -> p r = false) -> filter p l = [].
Proof.
  induction l as [|x l IH]; intros H; [reflexivity|]. cbn [filter].
  rewrite H by (left; reflexivity). apply IH. intros r Hr. apply H. now right.
Qed.

Lemma existsb_none {A} (p : A -> bool) l : (forall r, In r l -> p r = false) -> existsb p l = false.
Proof.
  intros H. apply not_true_is_false. intros E. apply existsb_exists in E as (r & Hr & E).
  rewrite (H r Hr) in E. discriminate.
Qed.

Lemma all_complete_cons a fs : all_complete (a :: fs) = af_recs a ++ all_complete fs.
Proof. reflexivity. Qed.
Lemma all_seen_cons a fs : all_seen (a :: fs) = (af_recs a ++ opt_list (torn_rec a)) ++ all_seen fs.
Proof. change (all_seen (a :: fs)) with (afile_seen a ++ all_seen fs). now rewrite afile_seen_eq. Qed.
Lemma torn_recs_cons a fs : torn_recs (a :: fs) = opt_list (torn_rec a) ++ torn_recs fs.
Proof.
  change (torn_recs (a :: fs)) with (match af_torn a with Some (r, _) => [r] | None => [] end ++ torn_recs fs).
  unfold torn_rec. destruct (af_torn a) as [[r d]|]; reflexivity.
Qed.

Lemma all_seen_app fs1 fs2 : all_seen (fs1 ++ fs2) = all_seen fs1 ++ all_seen fs2.
Proof. apply flat_map_app. Qed.
Lemma all_complete_app fs1 fs2 : all_complete (fs1 ++ fs2) = all_complete fs1 ++ all_complete fs2.
Proof. apply flat_map_app. Qed.
Lemma torn_recs_app fs1 fs2 : torn_recs (fs1 ++ fs2) = torn_recs fs1 ++ torn_recs fs2.
Proof. apply flat_map_app. Qed.

Lemma no_inst_files k i p fs :
  picks k i p -> Forall (fun a => has_inst k i a = false) fs ->
  existsb p (all_seen fs) = false /\ existsb p (torn_recs fs) = false /\ filter p (all_complete fs) = [].
Proof.
  intros Hp H. rewrite Forall_forall in H.
  (* the three lists collect, file by file, some of the records the file shows *)
  assert (F : forall g : AFile -> list Rec, (forall a, incl (g a) (afile_seen a)) ->
                forall r, In r (flat_map g fs) -> p r = false).
  { intros g Hg. apply (picks_false k i p _ Hp). intros r Hr. apply in_flat_map in Hr as (a & Ha & Hr).
    exact (no_inst_recs k i a r (H a Ha) (Hg a r Hr)). }
  split; [|split].
  - apply existsb_none, (F afile_seen). intros a. apply incl_refl.
  - apply existsb_none, (F (fun a => match af_torn a with Some (r, _) => [r] | None => [] end)).
    intros a. apply incl_appr, incl_refl.
  - apply filter_none, (F af_recs). intros a. apply incl_appl, incl_refl.
Qed.

Lemma one_file k i p fs1 a fs2 :
  picks k i p ->
  Forall (fun a' => has_inst k i a' = false) fs1 -> Forall (fun a' => has_inst k i a' = false) fs2 ->
  existsb p (all_seen (fs1 ++ a :: fs2)) = existsb p (afile_seen a)
  /\ existsb p (torn_recs (fs1 ++ a :: fs2)) = existsb p (opt_list (torn_rec a))
  /\ filter p (all_complete (fs1 ++ a :: fs2)) = filter p (af_recs a).
Proof.
  intros Hp H1 H2.
  destruct (no_inst_files k i p fs1 Hp H1) as (S1 & T1 & C1).
  destruct (no_inst_files k i p fs2 Hp H2) as (S2 & T2 & C2).
  rewrite all_seen_app, torn_recs_app, all_complete_app, all_seen_cons, torn_recs_cons, all_complete_cons.
  rewrite <- afile_seen_eq, !existsb_app, !filter_app, S1, S2, T1, T2, C1, C2, app_nil_r, !orb_false_r.
  repeat split.
Qed.

Lemma filter_filter' {A} (p q : A -> bool) l : filter p (filter q l) = filter (fun x => p x && q x) l.
Proof.
  induction l as [|x l IH]; [reflexivity|]. cbn [filter]. destruct (q x); cbn [filter].
  - rewrite andb_true_r. destruct (p x); now rewrite IH.
  - rewrite andb_false_r. exact IH.
Qed.

Lemma existsb_filter {A} (p q : A -> bool) l : existsb p (filter q l) = existsb (fun x => p x && q x) l.
Proof.
  induction l as [|x l IH]; [reflexivity|]. cbn [filter existsb]. destruct (q x); cbn [existsb].
  - now rewrite andb_true_r, IH.
  - now rewrite andb_false_r, IH.
Qed.

Lemma existsb_map {A B} (f : A -> B) (p : B -> bool) l : existsb p (map f l) = existsb (fun x => p (f x)) l.
Proof. induction l as [|x l IH]; [reflexivity|]. cbn [map existsb]. now rewrite IH. Qed.

Lemma existsb_ext {A} (p q : A -> bool) l : (forall x, p x = q x) -> existsb p l = existsb q l.
Proof. intros H. induction l as [|x l IH]; [reflexivity|]. cbn [existsb]. now rewrite H, IH. Qed.

Lemma file_les_file f a e : In e (file_les f a) -> le_file e = f.
Proof.
  unfold file_les, with_file. intros H. apply in_map_iff in H as (pr & <- & _). reflexivity.
Qed.

Lemma file_repr_chan b a : file_repr b a -> forall r, In r (afile_seen a) -> rec_chan r < 2 /\ rec_size r < U32_LIMIT.
Proof.
  intros (tail & _ & Ht & _ & Hr & _) r Hin. rewrite afile_seen_eq in Hin. apply in_app_or in Hin as [Hin|Hin].
  - rewrite forallb_forall in Hr. apply Hr in Hin. apply rec_ok_fields in Hin. tauto.
  - destruct Ht as [t Ht | r' d Hrok Hd]; [destruct Hin|]. destruct Hin as [<-|[]].
    apply rec_ok_fields in Hrok. tauto.
Qed.

Lemma inst_les k i L :
  filter (fun e => le_inst e =? i) (sub_les k L) = filter (fun e => of_inst k i (le_rec e)) L.
Proof. unfold sub_les. rewrite filter_filter'. apply filter_ext. intros e. apply andb_comm. Qed.

(** the chunks of channel [ch] of an entry: the data headers of that channel (on channel numbers
    below 2, "is 1" is "is not 0") *)
Lemma chunks_chan m ch :
  Forall (fun e => le_chan e < 2) m -> ch < 2 ->
  (if ch =? 0 then chunks0 m else chunks1 m)
  = map le_ci (filter (fun e => (0 <? le_size e) && (le_chan e =? ch)) m).
Proof.
  intros Hm Hch. destruct (N.eqb_spec ch 0) as [->|Hn0]; [reflexivity|].
  assert (ch = 1) as -> by lia. unfold chunks1. f_equal. apply filter_ext_in. intros e He.
  rewrite Forall_forall in Hm. specialize (Hm e He). f_equal.
  destruct (N.eqb_spec (le_chan e) 0), (N.eqb_spec (le_chan e) 1); try reflexivity; lia.
Qed.

Lemma inst_chunks k i ch L :
  Forall (fun e => le_chan e < 2) L -> ch < 2 ->
  (if ch =? 0 then chunks0 (filter (fun e => le_inst e =? i) (sub_les k L))
   else chunks1 (filter (fun e => le_inst e =? i) (sub_les k L)))
  = map le_ci (filter (fun e => is_data k i ch (le_rec e)) L).
Proof.
  intros HL Hch. rewrite inst_les, chunks_chan, filter_filter'; [|exact (incl_Forall (incl_filter _ _) HL)|exact Hch].
  f_equal. apply filter_ext. intros e. unfold is_data, le_size, le_chan.
  destruct (of_inst k i (le_rec e)), (rec_chan (le_rec e) =? ch), (0 <? rec_size (le_rec e)); reflexivity.
Qed.

Lemma file_entry k i n a b x m ch :
  x :: m = filter (fun e => le_inst e =? i) (sub_les k (file_les n a)) ->
  file_repr b a -> ch < 2 ->
  let R := extend (fresh x) (x :: m) in
  in_id R = i /\ in_file R = n
  /\ in_fin R = spec_finished k i (afile_seen a)
  /\ read_chunks b (chan_chunks R ch)
     = if existsb (is_data k i ch) (opt_list (torn_rec a)) then None
       else Some (spec_bytes k i ch (af_recs a)).
Proof.
  intros HM Hb Hch R. pose proof HM as HM'. rewrite inst_les in HM'.
  assert (Hx : In x (file_les n a) /\ of_inst k i (le_rec x) = true).
  { apply (filter_In (fun e => of_inst k i (le_rec e))). rewrite <- HM'. now left. }
  split; [|split; [|split]].
  - destruct Hx as [_ Ex]. apply andb_true_iff in Ex as [_ Ex]. now apply N.eqb_eq.
  - exact (file_les_file n a x (proj1 Hx)).
  - change (in_fin R) with (has_end (x :: m)). unfold has_end, spec_finished.
    rewrite HM', existsb_filter, <- (file_les_recs n a), existsb_map.
    apply existsb_ext. intros e. apply andb_comm.
  - change (chan_chunks R ch) with (if ch =? 0 then chunks0 (x :: m) else chunks1 (x :: m)).
    rewrite HM, inst_chunks; [exact (read_file_chunks b a n (is_data k i ch) Hb)| |exact Hch].
    apply Forall_forall. intros e He. apply (file_repr_chan b a Hb). rewrite <- (file_les_recs n a). now apply in_map.
Qed.

Lemma lookup_existsb k idx v : lookup k idx = Some v -> existsb (fun kv => fst (fst kv) =? fst k) idx = true.
Proof.
  induction idx as [|[k' v'] r IH]; [discriminate|]. cbn [lookup existsb fst].
  destruct (key_eqb k k') eqn:E.
  - intros _. apply key_eqb_eq in E. subst. now rewrite N.eqb_refl.
  - intros H. rewrite IH by assumption. apply orb_true_r.
Qed.

Lemma Forall2_len {A B} (R : A -> B -> Prop) l1 l2 : Forall2 R l1 l2 -> length l1 = length l2.
Proof. induction 1; simpl; congruence. Qed.

Theorem read_last bs fs k ch :
  Forall2 file_repr bs fs -> last_contig fs k = true -> ch < 2 ->
  exists idx X R i,
    create_index bs = ROk idx
    /\ max_inst k (all_seen fs) = Some i
    /\ lookup k idx = Some (X ++ [R])
    /\ Forall (fun J => in_id J < i) X
    /\ in_id R = i
    /\ in_fin R = spec_fin fs k
    /\ read_inst (mkLog bs idx) R ch = spec_read fs k ch.
Proof.
  intros HF Hc Hch. pose proof (create_index_spec bs fs HF) as Hci. unfold last_contig in Hc.
  destruct (max_inst k (all_seen fs)) as [i|] eqn:Emax; [|discriminate].
  destruct (max_inst_spec _ _ _ Emax) as (Hmax & _).
  (* the entry is made of the headers of [i] in the one file [a], the [n1]-th of the directory *)
  destruct (task_entry fs k i Hc Hmax) as (fs1 & a & fs2 & x & m & X & -> & Hlk & HX & HM & H1 & H2).
  set (n1 := N.of_nat (length fs1)) in *.
  apply Forall2_app_inv_r in HF as (bs1 & bs2' & HF1 & HF2 & ->).
  inversion HF2 as [|b ? bs2 ? Hb HF3]; subst. clear HF2.
  assert (Hnth : nth_error (bs1 ++ b :: bs2) (N.to_nat n1) = Some b).
  { unfold n1. rewrite Nat2N.id, <- (Forall2_len _ _ _ HF1). rewrite nth_error_app2 by lia.
    now rewrite Nat.sub_diag. }
  destruct (file_entry k i n1 a b x m ch HM Hb Hch) as (Eid & Efile & Efin & Erd).
  (* and the specification looks at the records of [i], all of which are in [a] *)
  destruct (one_file k i _ fs1 a fs2 (picks_end k i) H1 H2) as (Sfin & _ & _).
  destruct (one_file k i _ fs1 a fs2 (picks_is_data k i ch) H1 H2) as (_ & Storn & Sdata).
  exists (finalize (build (all_les 0 (fs1 ++ a :: fs2)) [])), X, (extend (fresh x) (x :: m)), i.
  split; [exact Hci|]. split; [reflexivity|]. split; [exact Hlk|]. split; [exact HX|]. split; [exact Eid|].
  split.
  - rewrite Efin. unfold spec_fin. rewrite Emax. symmetry. exact Sfin.
  - unfold read_inst. cbn [lg_paths]. rewrite Efile, Hnth, Erd.
    unfold spec_read, spec_bytes. rewrite Emax, Storn, Sdata.
    now destruct (existsb (is_data k i ch) (opt_list (torn_rec a))).
Qed.

(** * [OutputLog::open] on a directory of stream files of one server *)

Definition hqs_ents (bs : list bytes) : list DirEnt := map (mkDE true) bs.

Lemma file_repr_header b a : file_repr b a -> exists rest n, check_header b = DOk (af_hdr a) rest n.
Proof.
  intros (tail & -> & _ & Hh & _). unfold render_file. rewrite <- app_assoc.
  rewrite check_header_enc by assumption. eauto.
Qed.

Lemma uid_mem_self u : uid_mem u [u] = true.
Proof. unfold uid_mem. cbn [existsb]. now rewrite bytes_eqb_refl. Qed.

Lemma open_scan_ok u bs : forall fs found uids paths,
  Forall2 file_repr bs fs -> Forall (fun a => fh_uid (af_hdr a) = u) fs ->
  uids = [] \/ uids = [u] ->
  exists uids', (uids' = [] \/ uids' = [u])
    /\ open_scan (hqs_ents bs) None found uids paths = (found || negb (match bs with [] => true | _ => false end), uids', paths ++ bs).
Proof.
  induction bs as [|b bs IH]; intros fs found uids paths HF Hu Hids.
  - exists uids. split; [assumption|]. cbn. now rewrite orb_false_r, app_nil_r.
  - inversion HF as [|? a ? fs' Hb HF']; subst. inversion Hu as [|? ? Ha Hu']; subst.
    cbn [hqs_ents map open_scan de_hqs de_bytes]. destruct (file_repr_header b a Hb) as (rest & n & ->).
    fold (hqs_ents bs).
    destruct (IH fs' true (if uid_mem (fh_uid (af_hdr a)) uids then uids else uids ++ [fh_uid (af_hdr a)]) (paths ++ [b]) HF' Hu')
      as (uids' & Hids' & ->).
    { destruct Hids as [->| ->]; [right; reflexivity|]. rewrite uid_mem_self. right; reflexivity. }
    exists uids'. split; [assumption|]. rewrite <- app_assoc. cbn [app]. now rewrite orb_true_r.
Qed.

Lemma open_spec u bs fs :
  Forall2 file_repr bs fs -> Forall (fun a => fh_uid (af_hdr a) = u) fs -> bs <> [] ->
  open (hqs_ents bs) None = rbind (create_index bs) (fun idx => ROk (mkLog bs idx)).
Proof.
  intros HF Hu Hne. unfold open.
  destruct (open_scan_ok u bs fs false [] [] HF Hu (or_introl eq_refl)) as (uids' & Hids & ->).
  destruct bs; [congruence|]. cbn [orb negb app].
  destruct Hids as [->| ->]; reflexivity.
Qed.

(** a file whose header is cut is skipped by [open] *)
Lemma open_scan_skip b r filter found uids paths :
  check_header b = DEof ->
  open_scan (mkDE true b :: r) filter found uids paths = open_scan r filter true uids paths.
Proof. intros H. cbn [open_scan de_hqs de_bytes]. now rewrite H. Qed.

Theorem reader_spec u bs fs job task ch :
  Forall2 file_repr bs fs -> Forall (fun a => fh_uid (af_hdr a) = u) fs ->
  last_contig fs (job, task) = true -> ch < 2 ->
  exists lg X R i,
    open (hqs_ents bs) None = ROk lg
    /\ max_inst (job, task) (all_seen fs) = Some i
    /\ lookup (job, task) (lg_index lg) = Some (X ++ [R])
    /\ gather (lg_index lg) job task = ROk R
    /\ superseded (X ++ [R]) = X
    /\ Forall (fun J => in_id J < i) X
    /\ in_id R = i
    /\ in_fin R = spec_fin fs (job, task)
    /\ read_channel lg job task ch = spec_read fs (job, task) ch.
Proof.
  intros HF Hu Hc Hch.
  destruct (read_last bs fs (job, task) ch HF Hc Hch) as (idx & X & R & i & Hci & Hmax & Hlk & HX & Hid & Hfin & Hrd).
  assert (Hne : bs <> []).
  { intros ->. inversion HF; subst. unfold last_contig in Hc. cbn in Hc. discriminate. }
  exists (mkLog bs idx), X, R, i.
  rewrite (open_spec u bs fs HF Hu Hne), Hci. cbn [rbind lg_index].
  pose proof (lookup_existsb (job, task) idx _ Hlk) as He. cbn [fst] in He.
  assert (Hg : gather idx job task = ROk R).
  { unfold gather. rewrite He, Hlk. unfold last_instance. now rewrite last_opt_snoc. }
  repeat split; try assumption.
  - unfold superseded. apply removelast_last.
  - unfold read_channel, cat, cat_tasks. cbn [lg_index].
    rewrite He. cbn [negb gather_all]. rewrite Hg. cbn [rbind andb].
    cbn [read_all]. rewrite Hrd. destruct (spec_read fs (job, task) ch); cbn [rbind]; [now rewrite app_nil_r | reflexivity | reflexivity].
Qed.

Definition WF := (FileHeader * list Rec)%type.
Definition wf_bytes (w : WF) : bytes := render_file (fst w) (snd w).
Definition wf_afile (w : WF) : AFile := mkAF (fst w) (snd w) None.
Definition wf_ok (w : WF) : Prop :=
  file_header_ok (fst w) = true /\ forallb rec_ok (snd w) = true /\ lenN (wf_bytes w) + U32_LIMIT < I64_LIMIT.

Lemma wf_repr w : wf_ok w -> file_repr (wf_bytes w) (wf_afile w).
Proof.
  intros (Hh & Hr & Hl). exists []. unfold wf_bytes, wf_afile. cbn [af_hdr af_recs].
  rewrite app_nil_r. repeat split; try assumption. constructor. reflexivity.
Qed.

Lemma wf_repr_all ws : Forall wf_ok ws -> Forall2 file_repr (map wf_bytes ws) (map wf_afile ws).
Proof. induction 1; cbn [map]; constructor; [now apply wf_repr | assumption]. Qed.

Lemma wf_uid_all u ws :
  Forall (fun w => fh_uid (fst w) = u) ws -> Forall (fun a => fh_uid (af_hdr a) = u) (map wf_afile ws).
Proof. intros H. now apply Forall_map. Qed.

Lemma torn_recs_complete ws : torn_recs (map wf_afile ws) = [].
Proof. induction ws as [|w ws IH]; [reflexivity|]. cbn [map torn_recs flat_map]. exact IH. Qed.

Definition all_recs (ws : list WF) : list Rec := flat_map snd ws.

Lemma all_seen_complete ws : all_seen (map wf_afile ws) = all_recs ws /\ all_complete (map wf_afile ws) = all_recs ws.
Proof.
  induction ws as [|w ws [IH1 IH2]]; [split; reflexivity|].
  cbn [map all_seen all_complete all_recs flat_map]. fold (all_seen (map wf_afile ws)). fold (all_complete (map wf_afile ws)).
  fold (all_recs ws). rewrite IH1, IH2. unfold afile_seen, wf_afile. cbn [af_recs af_torn]. now rewrite app_nil_r.
Qed.

Theorem roundtrip u ws job task ch :
  Forall wf_ok ws -> Forall (fun w => fh_uid (fst w) = u) ws ->
  last_contig (map wf_afile ws) (job, task) = true -> ch < 2 ->
  exists lg X R i,
    open (hqs_ents (map wf_bytes ws)) None = ROk lg
    /\ max_inst (job, task) (all_recs ws) = Some i
    /\ gather (lg_index lg) job task = ROk R /\ in_id R = i
    /\ in_fin R = spec_finished (job, task) i (all_recs ws)
    /\ read_channel lg job task ch = ROk (spec_bytes (job, task) i ch (all_recs ws))
    /\ lookup (job, task) (lg_index lg) = Some (X ++ [R]) /\ superseded (X ++ [R]) = X
    /\ Forall (fun J => in_id J < i) X.
Proof.
  intros Hok Hu Hc Hch.
  destruct (reader_spec u _ _ job task ch (wf_repr_all ws Hok) (wf_uid_all u ws Hu) Hc Hch)
    as (lg & X & R & i & Ho & Hmax & Hlk & Hg & Hsup & HX & Hid & Hfin & Hrd).
  destruct (all_seen_complete ws) as [Es Ec].
  exists lg, X, R, i. rewrite Es in Hmax.
  unfold spec_fin in Hfin. rewrite Es, Hmax in Hfin.
  unfold spec_read in Hrd. rewrite Es, Hmax, torn_recs_complete, Ec in Hrd. cbn [existsb] in Hrd.
  repeat split; assumption.
Qed.

Lemma cut_recs_spec recs : forall n,
  forallb rec_ok recs = true ->
  exists tail,
    firstnN n (render_recs recs) = render_recs (fst (cut_recs n recs)) ++ tail
    /\ tail_ok tail (option_map fst (snd (cut_recs n recs)))
    /\ forallb rec_ok (fst (cut_recs n recs)) = true.
Proof.
  induction recs as [|r recs IH]; intros n Hok.
  - exists []. cbn [cut_recs fst snd option_map forallb]. change (render_recs []) with (@nil N). rewrite firstnN_nil.
    repeat split. constructor. reflexivity.
  - cbn [forallb] in Hok. apply andb_true_iff in Hok as [Hr Hok].
    pose proof Hr as Hr'. apply rec_ok_fields in Hr' as (Hh & Hs & Hc & Hz).
    cbn [cut_recs]. rewrite render_recs_cons.
    set (hl := lenN (enc_chunk_header (r_hdr r))). set (dl := lenN (r_data r)).
    destruct (N.leb_spec (hl + dl) n) as [Hle|Hlt].
    + destruct (IH (n - (hl + dl)) Hok) as (tail & E & Ht & Hc').
      destruct (cut_recs (n - (hl + dl)) recs) as [c t] eqn:Ecut. cbn [fst snd] in *.
      exists tail. split; [|split; [assumption | cbn [forallb]; now rewrite Hr, Hc']].
      rewrite render_recs_cons, <- !app_assoc.
      rewrite (app_assoc (enc_chunk_header (r_hdr r))), firstnN_app_ge by (now rewrite lenN_app).
      rewrite lenN_app. fold hl dl. rewrite E. now rewrite <- !app_assoc.
    + destruct (N.leb_spec hl n) as [Hh2|Hh2]; cbn [fst snd option_map render_recs concat map app].
      * exists (enc_chunk_header (r_hdr r) ++ firstnN (n - hl) (r_data r)). split; [|split; [|reflexivity]].
        -- rewrite firstnN_app_ge by exact Hh2. f_equal. apply firstnN_app_less. unfold dl in Hlt. lia.
        -- constructor; [assumption|]. destruct (firstnN_prefix (n - hl) (r_data r)) as (q & _ & Hl).
           rewrite Hl, Hs. unfold dl in Hlt. lia.
      * exists (firstnN n (enc_chunk_header (r_hdr r))). split; [|split; [|reflexivity]].
        -- apply firstnN_app_less. unfold hl in Hh2. lia.
        -- constructor. destruct (firstnN_strict n (enc_chunk_header (r_hdr r)) Hh2) as (q & Hq & Hne).
           exact (dec_chunk_header_prefix (r_hdr r) _ q Hh Hq Hne).
Qed.

Lemma cut_recs_prefix recs : forall n c t,
  cut_recs n recs = (c, t) ->
  exists rest, recs = c ++ rest /\ (forall r d, t = Some (r, d) -> In r rest).
Proof.
  induction recs as [|r recs IH]; intros n c t H.
  - cbn [cut_recs] in H. injection H as <- <-. exists []. split; [reflexivity | discriminate].
  - cbn [cut_recs] in H.
    destruct (lenN (enc_chunk_header (r_hdr r)) + lenN (r_data r) <=? n).
    + destruct (cut_recs (n - (lenN (enc_chunk_header (r_hdr r)) + lenN (r_data r))) recs) as [c' t'] eqn:E.
      injection H as <- <-. destruct (IH _ _ _ E) as (rest & -> & Ht). exists rest. split; [reflexivity | exact Ht].
    + destruct (lenN (enc_chunk_header (r_hdr r)) <=? n).
      * injection H as <- <-. exists (r :: recs). split; [reflexivity|]. intros r' d E. injection E as <- _.
        left; reflexivity.
      * injection H as <- <-. exists (r :: recs). split; [reflexivity | discriminate].
Qed.

Lemma cut_file_prefix fh recs n a :
  cut_file fh recs n = Some a ->
  af_hdr a = fh /\ exists rest, recs = af_recs a ++ rest /\ (forall r d, af_torn a = Some (r, d) -> In r rest).
Proof.
  unfold cut_file. destruct (n <? lenN (enc_file_header fh)); [discriminate|].
  destruct (cut_recs (n - lenN (enc_file_header fh)) recs) as [c t] eqn:E. intros H. injection H as <-.
  cbn [af_hdr af_recs af_torn]. split; [reflexivity|]. exact (cut_recs_prefix recs _ c t E).
Qed.

Theorem cut_file_repr w n a :
  wf_ok w -> cut_file (fst w) (snd w) n = Some a -> file_repr (firstnN n (wf_bytes w)) a.
Proof.
  intros (Hh & Hr & Hl) Hcut. unfold cut_file in Hcut.
  destruct (N.ltb_spec n (lenN (enc_file_header (fst w)))) as [|Hn]; [discriminate|].
  destruct (cut_recs_spec (snd w) (n - lenN (enc_file_header (fst w))) Hr) as (tail & E & Ht & Hc).
  destruct (cut_recs (n - lenN (enc_file_header (fst w))) (snd w)) as [c t] eqn:Ecut.
  injection Hcut as <-. cbn [fst snd] in *.
  unfold wf_bytes, render_file in *.
  assert (Eq : firstnN n (enc_file_header (fst w) ++ render_recs (snd w))
               = (enc_file_header (fst w) ++ render_recs c) ++ tail).
  { rewrite firstnN_app_ge, E by exact Hn. now rewrite app_assoc. }
  assert (Hlen : lenN (firstnN n (enc_file_header (fst w) ++ render_recs (snd w)))
                 <= lenN (enc_file_header (fst w) ++ render_recs (snd w))).
  { destruct (firstnN_prefix n (enc_file_header (fst w) ++ render_recs (snd w))) as (q & _ & Hq). rewrite Hq. lia. }
  exists tail. cbn [af_hdr af_recs]. rewrite Eq in *.
  split; [reflexivity|]. split; [exact Ht|]. split; [assumption|]. split; [assumption|]. lia.
Qed.

(** cut inside the file header: [check_header] fails with EOF, [open] skips the file *)
Theorem cut_file_header w n :
  wf_ok w -> cut_file (fst w) (snd w) n = None -> check_header (firstnN n (wf_bytes w)) = DEof.
Proof.
  intros (Hh & _ & _) Hcut. unfold cut_file in Hcut.
  destruct (N.ltb_spec n (lenN (enc_file_header (fst w)))) as [Hn|].
  2:{ destruct (cut_recs _ _); discriminate. }
  unfold wf_bytes, render_file. rewrite firstnN_app_less by lia.
  destruct (firstnN_strict n (enc_file_header (fst w)) Hn) as (q & Hq & Hne).
  exact (check_header_prefix (fst w) _ q Hh Hq Hne).
Qed.

Lemma cut_one_repr u ws1 w ws2 n a :
  Forall wf_ok (ws1 ++ w :: ws2) -> Forall (fun w => fh_uid (fst w) = u) (ws1 ++ w :: ws2) ->
  cut_file (fst w) (snd w) n = Some a ->
  Forall2 file_repr (map wf_bytes ws1 ++ firstnN n (wf_bytes w) :: map wf_bytes ws2)
                    (map wf_afile ws1 ++ a :: map wf_afile ws2)
  /\ Forall (fun a => fh_uid (af_hdr a) = u) (map wf_afile ws1 ++ a :: map wf_afile ws2).
Proof.
  intros Hok Hu Hcut.
  apply Forall_app in Hok as [Hok1 Hok2]. inversion Hok2 as [|? ? Hw Hok3]; subst.
  apply Forall_app in Hu as [Hu1 Hu2]. inversion Hu2 as [|? ? Huw Hu3]; subst.
  split.
  - apply Forall2_app; [now apply wf_repr_all|]. constructor; [now apply cut_file_repr | now apply wf_repr_all].
  - apply Forall_app. split; [now apply wf_uid_all|]. constructor; [|now apply wf_uid_all].
    apply cut_file_prefix in Hcut as [-> _]. reflexivity.
Qed.

(** The torn-file theorem: one writer file cut at ANY byte offset [n] (the others complete, any
    order): the reader does not fail; for every task whose largest surviving instance is
    contiguous it returns per channel exactly the data of the surviving complete chunks of that
    instance, or an I/O error if the cut chunk belongs to that instance and channel - never
    other bytes; the finished flag is the presence of a surviving end marker. *)
Theorem torn_file u ws1 w ws2 n a job task ch :
  Forall wf_ok (ws1 ++ w :: ws2) -> Forall (fun w => fh_uid (fst w) = u) (ws1 ++ w :: ws2) ->
  cut_file (fst w) (snd w) n = Some a ->
  let fs := map wf_afile ws1 ++ a :: map wf_afile ws2 in
  let bs := map wf_bytes ws1 ++ firstnN n (wf_bytes w) :: map wf_bytes ws2 in
  last_contig fs (job, task) = true -> ch < 2 ->
  exists lg X R i,
    open (hqs_ents bs) None = ROk lg
    /\ max_inst (job, task) (all_seen fs) = Some i
    /\ gather (lg_index lg) job task = ROk R /\ in_id R = i
    /\ in_fin R = spec_fin fs (job, task)
    /\ read_channel lg job task ch = spec_read fs (job, task) ch
    /\ lookup (job, task) (lg_index lg) = Some (X ++ [R]) /\ superseded (X ++ [R]) = X
    /\ Forall (fun J => in_id J < i) X.
Proof.
  intros Hok Hu Hcut fs bs Hc Hch.
  destruct (cut_one_repr u ws1 w ws2 n a Hok Hu Hcut) as [HF Hu'].
  destruct (reader_spec u bs fs job task ch HF Hu' Hc Hch)
    as (lg & X & R & i & Ho & Hmax & Hlk & Hg & Hsup & HX & Hid & Hfin & Hrd).
  exists lg, X, R, i. repeat apply conj; assumption.
Qed.
