(** C19, the superseded report at full strength: theorem [superseded_full]
    (= the statement [C19_superseded_full] of properties/C19.v, verbatim).

    When the headers of EVERY instance of a task are contiguous ([all_contig]: every instance
    lives in one file and its headers form one block among the task's headers of that file), the
    entries [TaskInfo::superseded] reports for the task are exactly the instances other than the
    largest one, in increasing id order, each with exactly the number of bytes per channel that
    the instance's headers (complete or torn) announce - the specification evaluated by the
    monitor `superseded-mismatch` of ocaml/stream/driver.ml.

    First sorted lists of ids and the shape of the instance list the index builds for one task
    when every id forms one block, then the theorem. *)
From HQ Require Import Base.Prelude Gen.Consts Stream.Model Stream.Codec Stream.Index Stream.Proofs
  Stream.Examples.
Require Import Sorted.
Open Scope N_scope.

Definition sortN (l : list N) : list N := fold_right insert_N [] l.

Lemma insert_N_In x y l : In x (insert_N y l) <-> y = x \/ In x l.
Proof.
  induction l as [|z l IH]; cbn [insert_N].
  - reflexivity.
  - destruct (y <=? z); [reflexivity|]. cbn [In]. rewrite IH. tauto.
Qed.

Lemma insert_N_sorted y l :
  StronglySorted N.lt l -> ~ In y l -> StronglySorted N.lt (insert_N y l).
Proof.
  induction l as [|z l IH]; intros Hs Hn; cbn [insert_N].
  - repeat constructor.
  - inversion Hs as [|? ? Hs' Hz]; subst.
    destruct (N.leb_spec y z) as [Hle|Hlt].
    + assert (Hyz : y < z).
      { assert (z <> y) by (intros ->; apply Hn; left; reflexivity). lia. }
      constructor; [assumption|]. constructor; [assumption|].
      eapply Forall_impl; [|exact Hz]. intros a Ha. cbv beta in Ha. lia.
    + constructor.
      * apply IH; [assumption | intros Hin; apply Hn; right; assumption].
      * apply Forall_forall. intros x Hx. apply insert_N_In in Hx as [<-|Hx]; [assumption|].
        rewrite Forall_forall in Hz. now apply Hz.
Qed.

Lemma sortN_In x l : In x (sortN l) <-> In x l.
Proof.
  induction l as [|y l IH]; [reflexivity|]. cbn [sortN fold_right]. fold (sortN l).
  rewrite insert_N_In, IH. reflexivity.
Qed.

Lemma sortN_sorted l : NoDup l -> StronglySorted N.lt (sortN l).
Proof.
  induction 1 as [|y l Hy Hnd IH]; [constructor|]. cbn [sortN fold_right]. fold (sortN l).
  apply insert_N_sorted; [assumption|]. now rewrite sortN_In.
Qed.

Lemma ssorted_unique l1 : forall l2,
  StronglySorted N.lt l1 -> StronglySorted N.lt l2 -> (forall x, In x l1 <-> In x l2) -> l1 = l2.
Proof.
  induction l1 as [|a r1 IH]; intros l2 H1 H2 Hm.
  - destruct l2 as [|b r2]; [reflexivity|]. exfalso. apply (proj2 (Hm b)). left; reflexivity.
  - destruct l2 as [|b r2].
    + exfalso. apply (proj1 (Hm a)). left; reflexivity.
    + inversion H1 as [|? ? Hs1 Ha]; subst. inversion H2 as [|? ? Hs2 Hb]; subst.
      rewrite Forall_forall in Ha, Hb.
      assert (Eab : a = b).
      { destruct (proj1 (Hm a) (or_introl eq_refl)) as [E|Hin]; [now symmetry|].
        destruct (proj2 (Hm b) (or_introl eq_refl)) as [E|Hin']; [assumption|].
        specialize (Ha _ Hin'). specialize (Hb _ Hin). lia. }
      subst b. f_equal. apply IH; try assumption. intros x. split; intros Hx.
      * destruct (proj1 (Hm x) (or_intror Hx)) as [E|Hin]; [|assumption].
        subst x. specialize (Ha _ Hx). lia.
      * destruct (proj2 (Hm x) (or_intror Hx)) as [E|Hin]; [|assumption].
        subst x. specialize (Hb _ Hx). lia.
Qed.

Lemma ssorted_snoc l m :
  StronglySorted N.lt (l ++ [m]) <-> StronglySorted N.lt l /\ Forall (fun x => x < m) l.
Proof.
  induction l as [|a l IH]; cbn [app]; [split; repeat constructor|]. split.
  - intros H. inversion H as [|? ? Hs Ha]; subst. apply IH in Hs as [Hs Hl].
    apply Forall_app in Ha as [Ha Hm]. inversion Hm; subst. split; constructor; assumption.
  - intros [H HF]. inversion H as [|? ? Hs Ha]; subst. inversion HF as [|? ? Ham HF']; subst.
    constructor; [now apply IH|]. apply Forall_app. split; [assumption | repeat constructor; assumption].
Qed.

Definition others (m : N) (P : list N) : list N :=
  fold_right (fun i acc => if (i =? m) || existsb (N.eqb i) acc then acc else insert_N i acc) [] P.

Lemma other_insts_eq fs k :
  other_insts fs k = match max_inst k (all_seen fs) with
                     | Some m => others m (proj_insts k (all_seen fs))
                     | None => []
                     end.
Proof. reflexivity. Qed.

Lemma existsb_eqb_In i l : existsb (N.eqb i) l = true <-> In i l.
Proof.
  rewrite existsb_exists. split.
  - intros (x & Hx & E). apply N.eqb_eq in E. now subst.
  - intros H. exists i. split; [assumption | apply N.eqb_refl].
Qed.

Lemma others_spec m P :
  StronglySorted N.lt (others m P) /\ forall x, In x (others m P) <-> In x P /\ x <> m.
Proof.
  induction P as [|i P (IHs & IHm)]; [split; [constructor | intros x; cbn; tauto]|].
  cbn [others fold_right]. fold (others m P).
  destruct ((i =? m) || existsb (N.eqb i) (others m P)) eqn:E.
  - (* [i] is skipped: it is [m], or it is there already *)
    split; [assumption|]. intros x. cbn [In]. split; [rewrite IHm; tauto|].
    intros [[<-|Hx] Hn]; [|apply IHm; tauto].
    apply orb_true_iff in E as [E|E]; [apply N.eqb_eq in E; contradiction | now apply existsb_eqb_In].
  - apply orb_false_iff in E as [Em Ex]. apply N.eqb_neq in Em. split.
    + apply insert_N_sorted; [assumption|]. intros Hin. apply existsb_eqb_In in Hin. congruence.
    + intros x. rewrite insert_N_In, IHm. cbn [In]. split; [intros [<-|Hx]; tauto | tauto].
Qed.

Corollary others_snoc m P :
  Forall (fun x => x <= m) P -> In m P ->
  StronglySorted N.lt (others m P ++ [m]) /\ forall x, In x (others m P ++ [m]) <-> In x P.
Proof.
  intros Hle Hm. destruct (others_spec m P) as (Hs & Hmem). rewrite Forall_forall in Hle. split.
  - apply ssorted_snoc. split; [assumption|]. apply Forall_forall. intros x Hx. apply Hmem in Hx as [Hx Hn].
    specialize (Hle x Hx). lia.
  - intros x. rewrite in_app_iff, Hmem. cbn [In]. destruct (N.eq_dec x m) as [->|E]; [tauto|].
    intuition congruence.
Qed.

Lemma in_removelast {A} (x : A) l : In x (removelast l) -> In x l.
Proof.
  induction l as [|a l IH]; [intros []|]. cbn [removelast]. destruct l as [|b l]; [intros []|].
  intros [<-|H]; [left; reflexivity | right; now apply IH].
Qed.

Lemma map_removelast {A B} (f : A -> B) l : map f (removelast l) = removelast (map f l).
Proof.
  induction l as [|a l IH]; [reflexivity|]. cbn [removelast map]. destruct l as [|b l]; [reflexivity|].
  cbn [map] in *. now rewrite IH.
Qed.

Lemma map_id_insert x l : map in_id (insert_inst x l) = insert_N (in_id x) (map in_id l).
Proof.
  induction l as [|y l IH]; [reflexivity|]. cbn [insert_inst map insert_N].
  destruct (in_id x <=? in_id y); cbn [map]; [reflexivity | now rewrite IH].
Qed.

Lemma map_id_sort l : map in_id (sort_insts l) = sortN (map in_id l).
Proof.
  induction l as [|x l IH]; [reflexivity|]. cbn [sort_insts fold_right map sortN].
  fold (sort_insts l). fold (sortN (map in_id l)). now rewrite map_id_insert, IH.
Qed.

Lemma sumN_map {A B} (g : A -> B) (f : B -> N) l : sumN f (map g l) = sumN (fun x => f (g x)) l.
Proof. unfold sumN. induction l as [|x l IH]; [reflexivity|]. cbn [map fold_right]. now rewrite IH. Qed.

Lemma sumN_ext_in {A} (f g : A -> N) l : (forall x, In x l -> f x = g x) -> sumN f l = sumN g l.
Proof.
  unfold sumN. induction l as [|x l IH]; intros H; [reflexivity|]. cbn [fold_right].
  rewrite H by (left; reflexivity). rewrite IH; [reflexivity|]. intros y Hy. apply H. now right.
Qed.

Lemma chunks_size_sel (p : LE -> bool) l :
  chunks_size (map le_ci (filter p l)) = sumN (fun e => if p e then trunc32 (le_size e) else 0) l.
Proof.
  unfold chunks_size, sumN. induction l as [|e l IH]; [reflexivity|]. cbn [filter fold_right].
  destruct (p e); cbn [map fold_right]; rewrite IH; [reflexivity | now rewrite N.add_0_l].
Qed.

Lemma insts_blk l i : blk l i ->
  exists T1 B T2, insts_of l [] = T2 ++ B :: T1 /\ in_id B = i
    /\ ~ In i (map in_id T1) /\ ~ In i (map in_id T2)
    /\ in_c0 B = chunks0 (filter (fun e => le_inst e =? i) l)
    /\ in_c1 B = chunks1 (filter (fun e => le_inst e =? i) l).
Proof.
  intros Hb. destruct (insts_of_blk l i Hb) as (T1 & T2 & x & m & Hf & HT & N1 & N2).
  exists T1, (extend (fresh x) (x :: m)), T2. rewrite Hf.
  split; [exact HT|]. split; [exact (filter_inst_head i l x m Hf)|].
  split; [|split; [|split; reflexivity]]; intros Hin; apply in_map_iff in Hin as (J & E & HJ).
  - rewrite Forall_forall in N1. exact (N1 J HJ E).
  - rewrite Forall_forall in N2. exact (N2 J HJ E).
Qed.

Lemma insts_all_blk l :
  (forall e, In e l -> blk l (le_inst e)) ->
  NoDup (map in_id (insts_of l []))
  /\ (forall J, In J (insts_of l []) ->
        in_c0 J = chunks0 (filter (fun e => le_inst e =? in_id J) l)
        /\ in_c1 J = chunks1 (filter (fun e => le_inst e =? in_id J) l))
  /\ (forall x, In x (map in_id (insts_of l [])) <-> In x (map le_inst l)).
Proof.
  intros Hall.
  assert (Hblk : forall J, In J (insts_of l []) -> blk l (in_id J)).
  { intros J HJ. destruct (insts_src l J HJ) as (e & He & <-). now apply Hall. }
  split; [|split].
  - apply (NoDup_count_occ' N.eq_dec). intros i Hi.
    apply in_map_iff in Hi as (J & <- & HJ).
    destruct (insts_blk l (in_id J) (Hblk J HJ)) as (T1 & B & T2 & HT & HB & N1 & N2 & _).
    rewrite HT, map_app. cbn [map]. rewrite count_occ_app, HB, count_occ_cons_eq by reflexivity.
    rewrite (proj1 (count_occ_not_In N.eq_dec _ _) N1), (proj1 (count_occ_not_In N.eq_dec _ _) N2).
    reflexivity.
  - intros J HJ.
    destruct (insts_blk l (in_id J) (Hblk J HJ)) as (T1 & B & T2 & HT & HB & N1 & N2 & E0 & E1).
    rewrite HT in HJ. apply in_app_or in HJ as [HJ|[HJ|HJ]].
    + exfalso. apply N2. now apply in_map.
    + subst J. split; assumption.
    + exfalso. apply N1. now apply in_map.
  - intros x. split; intros Hx.
    + apply in_map_iff in Hx as (J & <- & HJ). destruct (insts_src l J HJ) as (e & He & <-). now apply in_map.
    + apply in_map_iff in Hx as (e & <- & He).
      destruct (insts_blk l (le_inst e) (Hall e He)) as (T1 & B & T2 & HT & HB & _).
      rewrite HT, map_app. apply in_or_app. right. left. exact HB.
Qed.

Lemma all_contig_blk fs k :
  all_contig fs k = true ->
  forall e, In e (sub_les k (all_les 0 fs)) -> blk (sub_les k (all_les 0 fs)) (le_inst e).
Proof.
  intros Hc e He. unfold all_contig in Hc. rewrite forallb_forall in Hc.
  assert (Hi : In (le_inst e) (proj_insts k (all_seen fs))).
  { rewrite <- (sub_all_insts k fs 0). now apply in_map. }
  apply Hc, inst_contig_split in Hi as (fs1 & a & fs2 & -> & H1 & H2 & Hb). now apply task_split.
Qed.

Lemma all_seen_bounds bs fs :
  Forall2 file_repr bs fs -> forall r, In r (all_seen fs) -> rec_chan r < 2 /\ rec_size r < U32_LIMIT.
Proof.
  induction 1 as [|b a bs fs Hb _ IH]; intros r Hr; [destruct Hr|].
  change (all_seen (a :: fs)) with (afile_seen a ++ all_seen fs) in Hr.
  apply in_app_or in Hr as [Hr|Hr]; [exact (file_repr_chan b a Hb r Hr) | now apply IH].
Qed.

Lemma sizes_spec k i ch A :
  (forall e, In e A -> le_chan e < 2 /\ le_size e < U32_LIMIT) -> ch < 2 ->
  chunks_size (if ch =? 0 then chunks0 (filter (fun e => le_inst e =? i) (sub_les k A))
               else chunks1 (filter (fun e => le_inst e =? i) (sub_les k A)))
  = spec_size k i ch (map le_rec A).
Proof.
  intros Hb Hch. unfold spec_size. rewrite inst_chunks, chunks_size_sel, sumN_map.
  - apply sumN_ext_in. intros e He. destruct (Hb e He) as [_ Hs]. cbv beta. now rewrite trunc32_small.
  - apply Forall_forall. intros e He. exact (proj1 (Hb e He)).
  - exact Hch.
Qed.

Lemma open_log u bs fs lg :
  Forall2 file_repr bs fs -> Forall (fun a => fh_uid (af_hdr a) = u) fs ->
  open (hqs_ents bs) None = ROk lg -> lg = mkLog bs (finalize (build (all_les 0 fs) [])).
Proof.
  intros HF Hu Ho.
  assert (Hne : bs <> []) by (intros ->; cbn in Ho; discriminate).
  rewrite (open_spec u bs fs HF Hu Hne), (create_index_spec bs fs HF) in Ho. cbn [rbind] in Ho.
  now injection Ho as <-.
Qed.

Lemma lookup_insts k A insts :
  lookup k (finalize (build A [])) = Some insts ->
  sub_les k A <> [] /\ insts = sort_insts (rev (insts_of (sub_les k A) [])).
Proof.
  rewrite lookup_index. destruct (sub_les k A); [discriminate|]. intros [= <-]. split; [discriminate | reflexivity].
Qed.

Theorem all_contig_entry u bs fs job task lg insts :
  Forall2 file_repr bs fs -> Forall (fun a => fh_uid (af_hdr a) = u) fs ->
  all_contig fs (job, task) = true ->
  open (hqs_ents bs) None = ROk lg -> lookup (job, task) (lg_index lg) = Some insts ->
  exists m,
    max_inst (job, task) (all_seen fs) = Some m
    /\ map in_id insts = other_insts fs (job, task) ++ [m]
    /\ StronglySorted N.lt (map in_id insts)
    /\ forall J, In J insts ->
         channel_size J 0 = spec_size (job, task) (in_id J) 0 (all_seen fs)
         /\ channel_size J 1 = spec_size (job, task) (in_id J) 1 (all_seen fs).
Proof.
  intros HF Hu Hc Ho Hlk. set (k := (job, task)) in *.
  rewrite (open_log u bs fs lg HF Hu Ho) in Hlk. cbn [lg_index] in Hlk.
  apply lookup_insts in Hlk as (Hne & ->).
  pose proof (all_contig_blk fs k Hc) as Hblk.
  pose proof (sub_all_insts k fs 0) as HP.
  set (A := all_les 0 fs) in *. set (l := sub_les k A) in *.
  destruct (insts_all_blk l Hblk) as (Hnd & HJ & Hids).
  set (T := insts_of l []) in *. rewrite HP in Hids.
  destruct (max_inst k (all_seen fs)) as [m|] eqn:Emax.
  2:{ exfalso. apply Hne. apply max_inst_none in Emax. rewrite <- HP in Emax. now apply map_eq_nil in Emax. }
  destruct (max_inst_spec _ _ _ Emax) as (HPm & Hm_in).
  exists m. split; [reflexivity|].
  destruct (others_snoc m _ HPm Hm_in) as (Hsn & HOm).
  (* two strictly sorted lists of the same ids *)
  assert (Hsort : sortN (map in_id (rev T)) = others m (proj_insts k (all_seen fs)) ++ [m]).
  { apply ssorted_unique; [apply sortN_sorted; rewrite map_rev; now apply NoDup_rev | exact Hsn |].
    intros x. now rewrite sortN_In, map_rev, <- in_rev, Hids, HOm. }
  rewrite other_insts_eq, Emax, map_id_sort, Hsort.
  split; [reflexivity|]. split; [exact Hsn|].
  intros J HJin. apply sort_ids in HJin. apply in_rev in HJin.
  destruct (HJ J HJin) as (E0 & E1).
  assert (Hb : forall e, In e A -> le_chan e < 2 /\ le_size e < U32_LIMIT).
  { intros e He. apply (all_seen_bounds bs fs HF). rewrite <- (all_les_recs fs 0). now apply in_map. }
  assert (Hsz : forall ch, ch < 2 -> channel_size J ch = spec_size k (in_id J) ch (all_seen fs)).
  { intros ch Hch. rewrite <- (all_les_recs fs 0). fold A. rewrite <- (sizes_spec k (in_id J) ch A Hb Hch). fold l.
    unfold channel_size, chan_chunks. rewrite E0, E1. now destruct (ch =? 0). }
  split; [exact (Hsz 0 N.lt_0_2) | exact (Hsz 1 N.lt_1_2)].
Qed.

(** * The theorem: statement [C19_superseded_full] of properties/C19.v *)

Theorem superseded_full : forall u bs fs job task lg insts,
  Forall2 file_repr bs fs -> Forall (fun a => fh_uid (af_hdr a) = u) fs ->
  all_contig fs (job, task) = true ->
  open (hqs_ents bs) None = ROk lg -> lookup (job, task) (lg_index lg) = Some insts ->
  map (fun J => (in_id J, channel_size J 0, channel_size J 1)) (superseded insts)
  = map (fun i => (i, spec_size (job, task) i 0 (all_seen fs), spec_size (job, task) i 1 (all_seen fs)))
        (other_insts fs (job, task)).
Proof.
  intros u bs fs job task lg insts HF Hu Hc Ho Hlk.
  destruct (all_contig_entry u bs fs job task lg insts HF Hu Hc Ho Hlk) as (m & Emax & Hids & _ & Hsz).
  unfold superseded.
  transitivity (map (fun i => (i, spec_size (job, task) i 0 (all_seen fs), spec_size (job, task) i 1 (all_seen fs)))
                    (map in_id (removelast insts))).
  - rewrite map_map. apply map_ext_in. intros J HJ. apply in_removelast in HJ.
    destruct (Hsz J HJ) as [-> ->]. reflexivity.
  - f_equal. rewrite map_removelast, Hids. apply removelast_last.
Qed.

(** ... and the reported instance is the remaining entry: the whole entry list is the superseded
    instances followed by the largest one (no [last_contig] hypothesis needed: it is implied). *)
Corollary superseded_full_last : forall u bs fs job task lg insts,
  Forall2 file_repr bs fs -> Forall (fun a => fh_uid (af_hdr a) = u) fs ->
  all_contig fs (job, task) = true ->
  open (hqs_ents bs) None = ROk lg -> lookup (job, task) (lg_index lg) = Some insts ->
  exists R m, insts = superseded insts ++ [R] /\ last_instance insts = ROk R
    /\ max_inst (job, task) (all_seen fs) = Some m /\ in_id R = m
    /\ Forall (fun J => in_id J < m) (superseded insts)
    /\ length (superseded insts) = length (other_insts fs (job, task)).
Proof.
  intros u bs fs job task lg insts HF Hu Hc Ho Hlk.
  destruct (all_contig_entry u bs fs job task lg insts HF Hu Hc Ho Hlk) as (m & Emax & Hids & Hs & _).
  destruct (exists_last (l := insts)) as (X & R & ->).
  { intros ->. cbn in Hids. destruct (other_insts fs (job, task)); discriminate. }
  exists R, m. unfold superseded, last_instance. rewrite removelast_last, last_opt_snoc.
  rewrite map_app in Hids, Hs. cbn [map] in Hids, Hs.
  apply app_inj_tail in Hids as [HX HR].
  repeat split; try assumption.
  - rewrite <- HR. apply ssorted_snoc in Hs as [_ Hlt]. now rewrite Forall_map in Hlt.
  - rewrite <- HX. now rewrite map_length.
Qed.

(** Non-vacuity: the hypotheses hold on a directory with two files, two instances of task 1/0
    (one superseded), interleaving with another task; the superseded report is non-empty and is
    what the theorem says. *)
Example superseded_full_example :
  let fs := map wf_afile [wA; wB] in
  let bs := map wf_bytes [wA; wB] in
  Forall2 file_repr bs fs /\ Forall (fun a => fh_uid (af_hdr a) = [115; 114; 118]) fs
  /\ all_contig fs (1, 0) = true
  /\ other_insts fs (1, 0) = [1]
  /\ exists lg insts, open (hqs_ents bs) None = ROk lg /\ lookup (1, 0) (lg_index lg) = Some insts
       /\ map (fun J => (in_id J, channel_size J 0, channel_size J 1)) (superseded insts) = [(1, 2, 1)].
Proof.
  cbv zeta. split; [apply wf_repr_all; repeat constructor; vm_compute; reflexivity|].
  split; [repeat constructor|]. split; [vm_compute; reflexivity|]. split; [vm_compute; reflexivity|].
  eexists. eexists. split; [vm_compute; reflexivity|]. split; vm_compute; reflexivity.
Qed.

Print Assumptions superseded_full.
Print Assumptions superseded_full_last.
