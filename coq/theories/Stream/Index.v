(** C19: scanning the bytes of a stream file = folding the index update over the located
    records; the index entry of one task = the fold over that task's records only.
    Then the instance list that fold builds for one task: if the headers of instance [i] form one
    contiguous block among the task's headers (and [i] is the largest id), the sorted instance
    list ends with exactly one entry for [i], made of exactly the block's chunks. *)
From HQ Require Import Base.Prelude Gen.Consts Stream.Model Stream.Codec.
Open Scope N_scope.

Lemma key_eqb_eq a b : key_eqb a b = true <-> a = b.
Proof.
  unfold key_eqb. destruct a, b; simpl. rewrite andb_true_iff, !N.eqb_eq. split.
  - intros [-> ->]; reflexivity.
  - intros E; inversion E; auto.
Qed.

Lemma key_eqb_refl a : key_eqb a a = true.
Proof. now apply key_eqb_eq. Qed.

Lemma key_eqb_neq a b : key_eqb a b = false <-> a <> b.
Proof.
  split.
  - intros H E. apply key_eqb_eq in E. congruence.
  - intros H. destruct (key_eqb a b) eqn:E; [apply key_eqb_eq in E; contradiction | reflexivity].
Qed.

Definition dflt (o : option (list Inst)) : list Inst := match o with Some v => v | None => [] end.

Lemma lookup_upd_same k f idx : lookup k (upd k f idx) = Some (f (dflt (lookup k idx))).
Proof.
  induction idx as [|[k' v] r IH]; simpl.
  - now rewrite key_eqb_refl.
  - destruct (key_eqb k k') eqn:E; simpl; rewrite E; [reflexivity | exact IH].
Qed.

Lemma lookup_upd_other k k' f idx : k <> k' -> lookup k (upd k' f idx) = lookup k idx.
Proof.
  intros H. induction idx as [|[k2 v] r IH]; simpl.
  - apply key_eqb_neq in H. now rewrite H.
  - destruct (key_eqb k' k2) eqn:E; simpl.
    + apply key_eqb_eq in E. subst k2. apply key_eqb_neq in H. rewrite H. reflexivity.
    + destruct (key_eqb k k2); [reflexivity | exact IH].
Qed.

(** data position and record, for records rendered from stream position [pos] *)
Fixpoint locate (pos : N) (recs : list Rec) : list (N * Rec) :=
  match recs with
  | [] => []
  | r :: rs => let p := pos + lenN (enc_chunk_header (r_hdr r)) in
               (p, r) :: locate (p + rec_size r) rs
  end.

(** index entry: file index, data position, record *)
Definition LE := (N * N * Rec)%type.
Definition le_file (e : LE) : N := fst (fst e).
Definition le_pos (e : LE) : N := snd (fst e).
Definition le_rec (e : LE) : Rec := snd e.
Definition le_key (e : LE) : key := rec_key (snd e).
Definition le_inst (e : LE) : N := rec_inst (snd e).

Definition add_e (insts : list Inst) (e : LE) : list Inst :=
  add_hdr (le_file e) (le_pos e) (r_hdr (le_rec e)) insts.

Definition build (les : list LE) (idx : Index) : Index :=
  fold_left (fun idx e => upd (le_key e) (fun insts => add_e insts e) idx) les idx.

Definition insts_of (les : list LE) (init : list Inst) : list Inst := fold_left add_e les init.

Definition with_file (fidx : N) (l : list (N * Rec)) : list LE := map (fun pr => (fidx, fst pr, snd pr)) l.

Lemma build_app a b idx : build (a ++ b) idx = build b (build a idx).
Proof. unfold build. apply fold_left_app. Qed.

Lemma lookup_build k les : forall idx,
  lookup k (build les idx) =
  match filter (fun e => key_eqb k (le_key e)) les with
  | [] => lookup k idx
  | sub => Some (insts_of sub (dflt (lookup k idx)))
  end.
Proof.
  induction les as [|e les IH]; intros idx; [reflexivity|].
  change (build (e :: les) idx) with (build les (upd (le_key e) (fun insts => add_e insts e) idx)).
  rewrite IH. cbn [filter]. destruct (key_eqb k (le_key e)) eqn:E.
  - apply key_eqb_eq in E. subst k. rewrite lookup_upd_same. cbn [dflt].
    destruct (filter _ les); reflexivity.
  - apply key_eqb_neq in E. rewrite lookup_upd_other by assumption. reflexivity.
Qed.

Definition opt_list {A} (o : option A) : list A := match o with Some x => [x] | None => [] end.

(** what may follow the complete records in a (possibly cut) file: the beginning of a chunk
    header (possibly nothing), or a complete header followed by too little data *)
Inductive tail_ok : bytes -> option Rec -> Prop :=
| tail_inert t : dec_chunk_header t = DEof -> tail_ok t None
| tail_torn r d : rec_ok r = true -> lenN d < rec_size r -> tail_ok (enc_chunk_header (r_hdr r) ++ d) (Some r).

Lemma rec_ok_fields r :
  rec_ok r = true ->
  header_ok (r_hdr r) = true /\ rec_size r = lenN (r_data r) /\ rec_chan r < 2 /\ rec_size r < U32_LIMIT.
Proof.
  unfold rec_ok. intros H. rewrite !andb_true_iff, N.eqb_eq, !N.ltb_lt in H. tauto.
Qed.

Lemma render_recs_cons r recs : render_recs (r :: recs) = enc_chunk_header (r_hdr r) ++ r_data r ++ render_recs recs.
Proof. unfold render_recs. simpl. unfold enc_rec. now rewrite <- app_assoc. Qed.

Lemma dec_nil : dec_chunk_header [] = DEof.
Proof. reflexivity. Qed.

Lemma lenN_length l : lenN l = N.of_nat (length l).
Proof. reflexivity. Qed.

Lemma scan_rec fuel fidx pos r rest idx :
  rec_ok r = true -> pos + lenN (enc_chunk_header (r_hdr r)) + rec_size r < I64_LIMIT ->
  scan (S fuel) fidx pos (enc_chunk_header (r_hdr r) ++ rest) idx
  = scan fuel fidx (pos + lenN (enc_chunk_header (r_hdr r)) + rec_size r) (dropN (rec_size r) rest)
         (upd (rec_key r) (add_hdr fidx (pos + lenN (enc_chunk_header (r_hdr r))) (r_hdr r)) idx).
Proof.
  intros Hr Hb. apply rec_ok_fields in Hr as (Hh & _ & Hc & Hz).
  cbn [scan]. rewrite dec_enc_chunk_header by assumption. unfold rec_size, rec_chan, rec_key in *.
  destruct (N.ltb_spec 0 (ch_size (r_hdr r))) as [Hpos|Hzero].
  - destruct (N.ltb_spec (ch_chan (r_hdr r)) 2) as [_|]; [|lia].
    destruct (N.leb_spec I64_LIMIT (ch_size (r_hdr r))); [lia|].
    destruct (N.leb_spec I64_LIMIT (pos + lenN (enc_chunk_header (r_hdr r)) + ch_size (r_hdr r))); [lia|].
    reflexivity.
  - replace (ch_size (r_hdr r)) with 0 by lia. now rewrite N.add_0_r, dropN_0.
Qed.

Lemma scan_spec recs : forall fuel fidx pos idx tail torn,
  forallb rec_ok recs = true -> tail_ok tail torn ->
  (length (render_recs recs ++ tail) < fuel)%nat ->
  pos + lenN (render_recs recs ++ tail) + U32_LIMIT < I64_LIMIT ->
  scan fuel fidx pos (render_recs recs ++ tail) idx
  = ROk (build (with_file fidx (locate pos (recs ++ opt_list torn))) idx).
Proof.
  induction recs as [|r recs IH]; intros fuel fidx pos idx tail torn Hok Ht Hf Hb.
  - change (render_recs [] ++ tail) with tail in *. simpl app.
    destruct fuel as [|fuel]; [inversion Hf|].
    destruct Ht as [t Ht | r d Hr Hd].
    + cbn [scan]. now rewrite Ht.
    + pose proof (rec_ok_fields r Hr) as (_ & _ & _ & Hz).
      rewrite lenN_app in Hb. rewrite scan_rec, dropN_all by (assumption || lia).
      destruct fuel as [|fuel]; [|cbn [scan]; now rewrite dec_nil].
      rewrite app_length in Hf. pose proof (enc_chunk_header_len_pos (r_hdr r)) as P. unfold lenN in P. lia.
  - cbn [forallb] in Hok. apply andb_true_iff in Hok as [Hr Hok].
    pose proof (rec_ok_fields r Hr) as (_ & Hs & _ & Hz).
    rewrite render_recs_cons in *. repeat rewrite <- app_assoc in *.
    destruct fuel as [|fuel]; [inversion Hf|].
    rewrite !lenN_app in Hb. rewrite !app_length in Hf.
    pose proof (enc_chunk_header_len_pos (r_hdr r)) as P. unfold lenN in P.
    rewrite scan_rec by (assumption || lia). rewrite Hs, dropN_app, <- Hs.
    simpl app. cbn [locate with_file map].
    change (build ((fidx, ?p, r) :: ?l) idx) with (build l (upd (rec_key r) (fun insts => add_e insts (fidx, p, r)) idx)).
    apply IH; try assumption.
    + rewrite app_length. unfold lenN in *. lia.
    + rewrite lenN_app. unfold lenN in *. lia.
Qed.

Definition le_size (e : LE) : N := rec_size (le_rec e).
Definition le_chan (e : LE) : N := rec_chan (le_rec e).

Definition le_ci (e : LE) : ChunkInfo := mkCI (le_pos e) (trunc32 (le_size e)).

Definition chunks0 (m : list LE) : list ChunkInfo :=
  map le_ci (filter (fun e => (0 <? le_size e) && (le_chan e =? 0)) m).
Definition chunks1 (m : list LE) : list ChunkInfo :=
  map le_ci (filter (fun e => (0 <? le_size e) && negb (le_chan e =? 0)) m).
Definition has_end (m : list LE) : bool := existsb (fun e => le_size e =? 0) m.

Definition extend (I : Inst) (m : list LE) : Inst :=
  mkInst (in_id I) (in_c0 I ++ chunks0 m) (in_c1 I ++ chunks1 m) (in_file I) (in_fin I || has_end m).

Lemma extend_nil I : extend I [] = I.
Proof. destruct I. unfold extend, chunks0, chunks1, has_end. simpl. now rewrite !app_nil_r, orb_false_r. Qed.

Definition step_inst (I : Inst) (e : LE) : Inst :=
  if 0 <? le_size e then push_chunk I (le_chan e) (le_ci e) else set_fin I.

Lemma add_e_same I S e : in_id I = le_inst e -> add_e (I :: S) e = step_inst I e :: S.
Proof.
  intros H. unfold add_e, add_hdr. fold (le_inst e).
  change (ch_inst (r_hdr (le_rec e))) with (le_inst e).
  rewrite H, N.eqb_refl. reflexivity.
Qed.

Definition fresh (e : LE) : Inst := mkInst (le_inst e) [] [] (le_file e) false.

Lemma add_e_new I S e : in_id I <> le_inst e -> add_e (I :: S) e = step_inst (fresh e) e :: I :: S.
Proof.
  intros H. unfold add_e, add_hdr. change (ch_inst (r_hdr (le_rec e))) with (le_inst e).
  destruct (N.eqb_spec (in_id I) (le_inst e)); [contradiction|]. reflexivity.
Qed.

Lemma add_e_nil e : add_e [] e = [step_inst (fresh e) e].
Proof. reflexivity. Qed.

Lemma extend_step I e m : extend (step_inst I e) m = extend I (e :: m).
Proof.
  unfold extend, step_inst, chunks0, chunks1, has_end. cbn [filter existsb].
  destruct (N.ltb_spec 0 (le_size e)) as [Hp|Hz].
  - destruct (N.eqb_spec (le_size e) 0); [lia|]. unfold push_chunk.
    destruct (le_chan e =? 0); destruct I; simpl; rewrite <- ?app_assoc; reflexivity.
  - destruct (N.eqb_spec (le_size e) 0); [|lia]. destruct I; simpl.
    now rewrite orb_true_r.
Qed.

Lemma step_inst_id I e : in_id (step_inst I e) = in_id I.
Proof. unfold step_inst, push_chunk, set_fin. destruct (0 <? le_size e); [destruct (le_chan e =? 0)|]; reflexivity. Qed.

Lemma fold_block m : forall I S,
  Forall (fun e => le_inst e = in_id I) m -> insts_of m (I :: S) = extend I m :: S.
Proof.
  induction m as [|e m IH]; intros I S H.
  - now rewrite extend_nil.
  - inversion H as [|? ? He Hm]; subst. cbn [insts_of fold_left].
    rewrite add_e_same by auto. change (fold_left add_e m ?x) with (insts_of m x).
    rewrite IH by (rewrite step_inst_id; assumption). now rewrite extend_step.
Qed.

Lemma fold_block_new e m S i :
  Forall (fun x => le_inst x = i) (e :: m) ->
  match S with X :: _ => in_id X <> i | [] => True end ->
  insts_of (e :: m) S = extend (fresh e) (e :: m) :: S.
Proof.
  intros H HS. inversion H as [|? ? He Hm]; subst.
  cbn [insts_of fold_left]. change (fold_left add_e m ?x) with (insts_of m x).
  assert (E : add_e S e = step_inst (fresh e) e :: S).
  { destruct S as [|X S]; [apply add_e_nil | apply add_e_new; assumption]. }
  rewrite E, fold_block, extend_step; [reflexivity|].
  rewrite step_inst_id. exact Hm.
Qed.

Lemma fold_stack l : forall T S, T <> [] -> insts_of l (T ++ S) = insts_of l T ++ S.
Proof.
  induction l as [|e l IH]; intros T S HT; [reflexivity|].
  destruct T as [|I T]; [congruence|]. cbn [insts_of fold_left].
  change (fold_left add_e l ?x) with (insts_of l x).
  simpl app. destruct (N.eq_dec (in_id I) (le_inst e)) as [E|E].
  - rewrite !add_e_same by assumption. apply (IH (_ :: T)). discriminate.
  - rewrite !add_e_new by assumption. apply (IH (_ :: _ :: T)). discriminate.
Qed.

Lemma fold_fresh l X S :
  Forall (fun e => le_inst e <> in_id X) l -> insts_of l (X :: S) = insts_of l [] ++ X :: S.
Proof.
  intros [|e l' He _]; [reflexivity|]. cbn [insts_of fold_left].
  change (fold_left add_e l' ?x) with (insts_of l' x).
  rewrite add_e_new by congruence. apply (fold_stack l' [step_inst (fresh e) e]). discriminate.
Qed.

Lemma fold_ids (Q : N -> Prop) l : forall S,
  Forall (fun I => Q (in_id I)) S -> Forall (fun e => Q (le_inst e)) l ->
  Forall (fun J => Q (in_id J)) (insts_of l S).
Proof.
  induction l as [|e l IH]; intros S HS Hl; [exact HS|].
  inversion Hl as [|? ? He Hl']; subst.
  change (insts_of (e :: l) S) with (insts_of l (add_e S e)). apply IH; [|assumption].
  assert (Hn : Forall (fun I => Q (in_id I)) (step_inst (fresh e) e :: S)).
  { constructor; [now rewrite step_inst_id | assumption]. }
  destruct S as [|I S]; [exact Hn|].
  destruct (N.eq_dec (in_id I) (le_inst e)) as [E|E].
  - rewrite add_e_same by assumption. inversion HS; subst. constructor; [now rewrite step_inst_id | assumption].
  - now rewrite add_e_new.
Qed.

Lemma insts_of_app a b S : insts_of (a ++ b) S = insts_of b (insts_of a S).
Proof. unfold insts_of. apply fold_left_app. Qed.

Lemma insts_src l J : In J (insts_of l []) -> exists e, In e l /\ le_inst e = in_id J.
Proof.
  revert J. apply Forall_forall. apply (fold_ids (fun j => exists e, In e l /\ le_inst e = j)); [constructor|].
  apply Forall_forall. eauto.
Qed.

Definition blk (l : list LE) (i : N) : Prop :=
  exists l1 x m l2, l = l1 ++ (x :: m) ++ l2
    /\ Forall (fun y => le_inst y <> i) l1 /\ Forall (fun y => le_inst y = i) (x :: m)
    /\ Forall (fun y => le_inst y <> i) l2.

(** [one_block], the executable form of the hypothesis, implies it *)
Lemma drop_eq_run i l :
  existsb (N.eqb i) (drop_eq i (map le_inst l)) = false ->
  exists m l2, l = m ++ l2 /\ Forall (fun y => le_inst y = i) m /\ Forall (fun y => le_inst y <> i) l2.
Proof.
  induction l as [|y l IH]; cbn [map drop_eq].
  - intros _. exists [], []. repeat split; constructor.
  - destruct (N.eqb_spec (le_inst y) i) as [E|E]; intros H.
    + destruct (IH H) as (m & l2 & -> & Hm & H2). exists (y :: m), l2. repeat split; auto.
    + exists [], (y :: l). repeat split; [constructor|].
      apply Forall_forall. intros z Hz Ez. apply (in_map le_inst) in Hz. rewrite Ez in Hz.
      apply not_true_iff_false in H. apply H, existsb_exists. exists i. split; [exact Hz | apply N.eqb_refl].
Qed.

Lemma one_block_blk i l : one_block i (map le_inst l) = true -> blk l i.
Proof.
  induction l as [|x l IH]; cbn [map one_block]; [discriminate|].
  destruct (N.eqb_spec (le_inst x) i) as [E|E]; intros H.
  - apply negb_true_iff, drop_eq_run in H as (m & l2 & -> & Hm & H2).
    exists [], x, m, l2. repeat split; auto.
  - destruct (IH H) as (l1 & y & m & l2 & -> & H1 & Hm & H2).
    exists (x :: l1), y, m, l2. repeat split; auto.
Qed.

Lemma filter_inst_ne i l : Forall (fun e => le_inst e <> i) l -> filter (fun e => le_inst e =? i) l = [].
Proof.
  induction 1 as [|e l He _ IH]; [reflexivity|]. cbn [filter]. apply N.eqb_neq in He. now rewrite He.
Qed.

Lemma filter_inst_eq i l : Forall (fun e => le_inst e = i) l -> filter (fun e => le_inst e =? i) l = l.
Proof.
  induction 1 as [|e l He _ IH]; [reflexivity|]. cbn [filter]. apply N.eqb_eq in He. now rewrite He, IH.
Qed.

Lemma filter_inst_head i l x m : filter (fun e => le_inst e =? i) l = x :: m -> le_inst x = i.
Proof.
  intros Hf. assert (Hx : In x (filter (fun e => le_inst e =? i) l)) by (rewrite Hf; now left).
  apply filter_In in Hx as [_ Hx]. now apply N.eqb_eq.
Qed.

Theorem insts_of_blk l i : blk l i ->
  exists T1 T2 x m,
    filter (fun e => le_inst e =? i) l = x :: m
    /\ insts_of l [] = T2 ++ extend (fresh x) (x :: m) :: T1
    /\ Forall (fun J => in_id J <> i) T1 /\ Forall (fun J => in_id J <> i) T2.
Proof.
  intros (l1 & x & m & l2 & -> & H1 & Hm & H2).
  pose proof (fold_ids (fun j => j <> i) l1 [] (Forall_nil _) H1) as HT1.
  pose proof (fold_ids (fun j => j <> i) l2 [] (Forall_nil _) H2) as HT2.
  exists (insts_of l1 []), (insts_of l2 []), x, m. rewrite !filter_app, !insts_of_app.
  rewrite (filter_inst_ne i l1), (filter_inst_ne i l2), (filter_inst_eq i (x :: m)), app_nil_r by assumption.
  rewrite (fold_block_new x m _ i Hm) by (destruct HT1; auto).
  rewrite fold_fresh; [repeat split; assumption|].
  cbn [extend fresh in_id]. rewrite (Forall_inv Hm). exact H2.
Qed.

(** * stable sort: the unique maximum ends up last, the rest keeps its relative order *)

Lemma insert_max x l : Forall (fun y => in_id y < in_id x) l -> insert_inst x l = l ++ [x].
Proof.
  induction l as [|y l IH]; intros H; [reflexivity|].
  inversion H; subst. cbn [insert_inst]. destruct (N.leb_spec (in_id x) (in_id y)); [lia|].
  rewrite IH by assumption. reflexivity.
Qed.

Lemma insert_before_max x l m :
  in_id x < in_id m -> insert_inst x (l ++ [m]) = insert_inst x l ++ [m].
Proof.
  intros H. induction l as [|y l IH]; cbn [insert_inst app].
  - destruct (N.leb_spec (in_id x) (in_id m)); [reflexivity | lia].
  - destruct (in_id x <=? in_id y); [reflexivity|]. now rewrite IH.
Qed.

Lemma insert_Forall (P : Inst -> Prop) x l : P x -> Forall P l -> Forall P (insert_inst x l).
Proof.
  intros Hx Hl. induction Hl as [|y l Hy Hl IH]; cbn [insert_inst].
  - constructor; auto.
  - destruct (_ <=? _); repeat constructor; auto.
Qed.

Lemma sort_Forall (P : Inst -> Prop) l : Forall P l -> Forall P (sort_insts l).
Proof.
  intros H. induction H as [|x l Hx Hl IH]; [constructor|]. cbn [sort_insts fold_right].
  apply insert_Forall; assumption.
Qed.

Lemma sort_max l1 m l2 :
  Forall (fun y => in_id y < in_id m) l1 -> Forall (fun y => in_id y < in_id m) l2 ->
  sort_insts (l1 ++ m :: l2) = sort_insts (l1 ++ l2) ++ [m].
Proof.
  intros H1 H2. induction H1 as [|x l1 Hx H1 IH].
  - cbn [app sort_insts fold_right]. apply insert_max. now apply sort_Forall.
  - cbn [app sort_insts fold_right]. change (fold_right insert_inst [] ?l) with (sort_insts l).
    rewrite IH. now apply insert_before_max.
Qed.

Lemma last_opt_snoc {A} (l : list A) x : last_opt (l ++ [x]) = Some x.
Proof.
  induction l as [|y l IH]; [reflexivity|]. simpl app. cbn [last_opt].
  destruct (l ++ [x]) eqn:E; [destruct l; discriminate | exact IH].
Qed.

Lemma sort_ids l J : In J (sort_insts l) -> In J l.
Proof. revert J. apply Forall_forall, sort_Forall, Forall_forall. auto. Qed.

Corollary sorted_last l i : blk l i -> Forall (fun e => le_inst e <= i) l ->
  exists X x m,
    filter (fun e => le_inst e =? i) l = x :: m
    /\ sort_insts (rev (insts_of l [])) = X ++ [extend (fresh x) (x :: m)]
    /\ Forall (fun J => in_id J < i) X.
Proof.
  intros Hb Hle. destruct (insts_of_blk l i Hb) as (T1 & T2 & x & m & Hf & HT & N1 & N2).
  (* every entry has an id that occurs in [l], hence at most [i]; the other entries do not have [i] *)
  pose proof (fold_ids (fun j => j <= i) l [] (Forall_nil _) Hle) as HL.
  rewrite HT in HL. apply Forall_app in HL as [L2 HL]. inversion HL as [|? ? _ L1]; subst.
  assert (Hlt : forall T, Forall (fun J => in_id J <= i) T -> Forall (fun J => in_id J <> i) T ->
                          Forall (fun J => in_id J < i) (rev T)).
  { intros T HLe HN. apply Forall_rev. eapply Forall_impl; [|exact (Forall_and HLe HN)].
    intros J [? ?]. lia. }
  pose proof (Hlt T1 L1 N1) as X1. pose proof (Hlt T2 L2 N2) as X2.
  exists (sort_insts (rev T1 ++ rev T2)), x, m. split; [exact Hf|].
  rewrite HT, rev_app_distr. cbn [rev]. rewrite <- app_assoc. cbn [app]. split.
  - apply sort_max; cbn [extend fresh in_id]; rewrite (filter_inst_head i l x m Hf); assumption.
  - apply sort_Forall, Forall_app. split; assumption.
Qed.
