(** C19, "reported finished => complete" outside the known-finding class F20, at byte level:
    theorems [finished_outside_f20_bytes] (any number of cut / skipped files) and
    [finished_complete_outside_f20] (the statement [C19_finished_complete_full] of [Examples],
    refuted there in general, holds with the one extra hypothesis [f20_class = false]).
    See [FullFin] for the setting. *)
From HQ Require Import Base.Prelude Gen.Consts Stream.Model Stream.Codec Stream.Index Stream.Proofs
  Stream.Examples Stream.FullFin.
Open Scope N_scope.

(** [cat] without --allow-unfinished on a finished stream = the raw channel read *)
Lemma cat_finished lg job task ch R :
  gather (lg_index lg) job task = ROk R -> in_fin R = true ->
  cat lg job task ch false = read_channel lg job task ch.
Proof.
  intros Hg Hf. unfold read_channel, cat, cat_tasks.
  destruct (negb (existsb (fun kv => fst (fst kv) =? job) (lg_index lg))); [reflexivity|].
  cbn [gather_all]. rewrite Hg. cbn [rbind existsb negb andb]. rewrite Hf. reflexivity.
Qed.

Theorem finished_bytes_sub u bs orig fs job task ch lg R :
  Forall2 file_repr bs fs -> Forall (fun a => fh_uid (af_hdr a) = u) fs ->
  sub_dir orig fs ->
  last_contig fs (job, task) = true -> ch < 2 ->
  open (hqs_ents bs) None = ROk lg ->
  gather (lg_index lg) job task = ROk R -> in_fin R = true ->
  f20_class orig fs (job, task) = false ->
  max_inst (job, task) (all_seen fs) = Some (in_id R)
  /\ filter (of_inst (job, task) (in_id R)) (all_seen orig)
     = filter (of_inst (job, task) (in_id R)) (all_complete fs)
  /\ existsb (of_inst (job, task) (in_id R)) (torn_recs fs) = false
  /\ read_channel lg job task ch = ROk (spec_bytes (job, task) (in_id R) ch (all_complete orig))
  /\ cat lg job task ch false = ROk (spec_bytes (job, task) (in_id R) ch (all_complete orig)).
Proof.
  intros HF Hu Hsub Hc Hch Ho Hg Hfin Hf20.
  destruct (reader_spec u bs fs job task ch HF Hu Hc Hch)
    as (lg' & X & R' & i & Ho' & Hmax & Hlk & Hg' & Hsup & HX & Hid & Hfin' & Hrd).
  rewrite Ho in Ho'. injection Ho' as <-. rewrite Hg in Hg'. injection Hg' as <-. subst i.
  assert (Hfc : spec_finished (job, task) (in_id R) (all_complete fs) = true).
  { rewrite <- (fin_seen_complete bs fs _ _ HF). unfold spec_fin in Hfin'. rewrite Hmax in Hfin'. congruence. }
  pose proof (finished_outside_f20 orig fs (job, task) (in_id R) Hf20 Hmax Hfc) as Hcnt.
  pose proof (seen_complete_le (job, task) (in_id R) orig) as L1.
  pose proof (sub_dir_le (job, task) (in_id R) orig fs Hsub) as L2.
  destruct (sub_dir_eq (job, task) (in_id R) orig fs Hsub (N.le_trans _ _ _ L1 Hcnt)) as [Heq Htorn].
  pose proof (seen_complete_eq (job, task) (in_id R) orig (N.le_trans _ _ _ Hcnt L2)) as Hseen.
  assert (Hrc : read_channel lg job task ch = ROk (spec_bytes (job, task) (in_id R) ch (all_complete orig))).
  { rewrite Hrd. unfold spec_read. rewrite Hmax.
    rewrite (existsb_none _ _ (picks_false _ _ _ _ (picks_is_data (job, task) (in_id R) ch) Htorn)).
    unfold spec_bytes. now rewrite (Heq _ (picks_is_data (job, task) (in_id R) ch)). }
  split; [exact Hmax|]. split; [|split; [|split]].
  - rewrite (Hseen _ (picks_of_inst (job, task) (in_id R))).
    apply (Heq _ (picks_of_inst (job, task) (in_id R))).
  - exact (existsb_none _ _ Htorn).
  - exact Hrc.
  - now rewrite (cat_finished lg job task ch R Hg Hfin).
Qed.

(** [orig]: the stream files as written; [fs] / [bs]: what the reader finds, any number of files
    cut at any byte or skipped.  A stream reported finished, outside the class F20, reads back -
    with and without --allow-unfinished - exactly the bytes the reported instance wrote, per
    channel; all records of that instance survived complete. *)
Theorem finished_outside_f20_bytes : forall u bs orig fs job task ch lg R,
  Forall2 file_repr bs fs -> Forall (fun a => fh_uid (af_hdr a) = u) fs ->
  cut_dir orig fs ->
  last_contig fs (job, task) = true -> ch < 2 ->
  open (hqs_ents bs) None = ROk lg ->
  gather (lg_index lg) job task = ROk R -> in_fin R = true ->
  f20_class orig fs (job, task) = false ->
  max_inst (job, task) (all_seen fs) = Some (in_id R)
  /\ filter (of_inst (job, task) (in_id R)) (all_seen orig)
     = filter (of_inst (job, task) (in_id R)) (all_complete fs)
  /\ existsb (of_inst (job, task) (in_id R)) (torn_recs fs) = false
  /\ read_channel lg job task ch = ROk (spec_bytes (job, task) (in_id R) ch (all_complete orig))
  /\ cat lg job task ch false = ROk (spec_bytes (job, task) (in_id R) ch (all_complete orig)).
Proof.
  intros u bs orig fs job task ch lg R HF Hu Hcut. apply (finished_bytes_sub u bs orig fs); try assumption.
  now apply cut_dir_sub.
Qed.

Lemma wf_afile_torn ws : Forall (fun a => af_torn a = None) (map wf_afile ws).
Proof. apply Forall_forall. intros a Ha. apply in_map_iff in Ha as (w & <- & _). reflexivity. Qed.

(** One writer file cut at any byte at or after its header, the others intact, any order. *)
Theorem finished_complete_outside_f20 : forall u ws1 w ws2 n a job task ch lg R,
  Forall wf_ok (ws1 ++ w :: ws2) -> Forall (fun w => fh_uid (fst w) = u) (ws1 ++ w :: ws2) ->
  cut_file (fst w) (snd w) n = Some a ->
  last_contig (map wf_afile ws1 ++ a :: map wf_afile ws2) (job, task) = true -> ch < 2 ->
  open (hqs_ents (map wf_bytes ws1 ++ firstnN n (wf_bytes w) :: map wf_bytes ws2)) None = ROk lg ->
  gather (lg_index lg) job task = ROk R -> in_fin R = true ->
  f20_class (map wf_afile (ws1 ++ w :: ws2)) (map wf_afile ws1 ++ a :: map wf_afile ws2) (job, task) = false ->
  read_channel lg job task ch = ROk (spec_bytes (job, task) (in_id R) ch (all_recs (ws1 ++ w :: ws2)))
  /\ cat lg job task ch false = ROk (spec_bytes (job, task) (in_id R) ch (all_recs (ws1 ++ w :: ws2))).
Proof.
  intros u ws1 w ws2 n a job task ch lg R Hok Hu Hcut Hc Hch Ho Hg Hfin Hf20.
  set (fs := map wf_afile ws1 ++ a :: map wf_afile ws2) in *.
  set (bs := map wf_bytes ws1 ++ firstnN n (wf_bytes w) :: map wf_bytes ws2) in *.
  destruct (cut_one_repr u ws1 w ws2 n a Hok Hu Hcut) as [HF Hu'].
  assert (Hsub : sub_dir (map wf_afile (ws1 ++ w :: ws2)) fs).
  { rewrite map_app. cbn [map]. apply sub_dir_app; [apply sub_dir_refl, wf_afile_torn|].
    apply cut_file_prefix in Hcut as (_ & rest & Hr & Ht).
    apply (sd_keep (wf_afile w) a rest); [exact Hr | exact Ht | apply sub_dir_refl, wf_afile_torn]. }
  destruct (finished_bytes_sub _ bs _ fs job task ch lg R HF Hu' Hsub Hc Hch Ho Hg Hfin Hf20)
    as (_ & _ & _ & Hrc & Hcat).
  destruct (all_seen_complete (ws1 ++ w :: ws2)) as [_ Ec]. rewrite Ec in Hrc, Hcat. split; assumption.
Qed.

(** * Non-vacuity *)

(** File A (the superseded instance 1 of task 1/0 and task 1/5) cut at byte 60, inside its third
    record; file B intact: task 1/0 is reported finished, the situation is outside the class F20,
    and stdout reads back as "hello!!", everything instance 2 wrote. *)
Example finished_bytes_example :
  exists a lg R,
    let orig := map wf_afile [wB; wA] in
    let fs := [wf_afile wB; a] in
    let bs := [wf_bytes wB; firstnN 60 (wf_bytes wA)] in
    cut_file fhA recsA 60 = Some a /\ length (af_recs a) = 2%nat /\ af_torn a <> None
    /\ Forall2 file_repr bs fs /\ Forall (fun a => fh_uid (af_hdr a) = [115; 114; 118]) fs
    /\ cut_dir orig fs /\ last_contig fs (1, 0) = true
    /\ open (hqs_ents bs) None = ROk lg /\ gather (lg_index lg) 1 0 = ROk R /\ in_fin R = true
    /\ f20_class orig fs (1, 0) = false
    /\ read_channel lg 1 0 0 = ROk [104; 101; 108; 108; 111; 33; 33]
    /\ spec_bytes (1, 0) (in_id R) 0 (all_complete orig) = [104; 101; 108; 108; 111; 33; 33].
Proof.
  assert (HokA : wf_ok wA) by (pose proof ex_ok as H; inversion H as [|? ? _ H']; now inversion H').
  assert (HokB : wf_ok wB) by (pose proof ex_ok as H; now inversion H).
  eexists. eexists. eexists. cbv zeta.
  split; [vm_compute; reflexivity|]. split; [reflexivity|]. split; [discriminate|].
  split.
  { constructor; [now apply wf_repr|]. constructor; [|constructor].
    apply (cut_file_repr wA 60); [assumption | vm_compute; reflexivity]. }
  split; [repeat constructor|].
  split.
  { apply (cd_cut (wf_afile wB) 1000 (wf_afile wB)); [vm_compute; reflexivity|].
    apply (cd_cut (wf_afile wA) 60); [vm_compute; reflexivity | constructor]. }
  split; [vm_compute; reflexivity|].
  split; [vm_compute; reflexivity|].
  split; [vm_compute; reflexivity|].
  repeat apply conj; vm_compute; reflexivity.
Qed.

Print Assumptions finished_outside_f20_bytes.
Print Assumptions finished_complete_outside_f20.
