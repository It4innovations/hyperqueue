(** C19: non-vacuity examples and the witness of known finding F20 (all by computation on the
    executable model). *)
From HQ Require Import Base.Prelude Gen.Consts Stream.Model Stream.Codec Stream.Index Stream.Proofs.
Open Scope N_scope.

Definition T0 : Z := 1700000000000%Z.
Definition fhA : FileHeader := mkFH [115; 114; 118] 1.      (* uid "srv", worker 1 *)
Definition fhB : FileHeader := mkFH [115; 114; 118] 250.

(** worker 1: task 1/0 instance 1 (superseded later), interleaved with task 1/5 *)
Definition recsA : list Rec :=
  [ mk_rec T0 1 0 1 0 [97; 98];
    mk_rec T0 1 5 0 0 [120; 121; 122];
    mk_rec T0 1 0 1 1 [69];
    mk_rec T0 1 5 0 0 [];
    mk_rec T0 1 0 1 0 [];
    mk_rec T0 1 0 1 1 [] ].

(** worker 250: task 1/0 instance 2 = the last run; stderr closes before stdout is complete *)
Definition recsB : list Rec :=
  [ mk_rec T0 1 0 2 0 [104; 101; 108; 108; 111];
    mk_rec T0 1 0 2 1 [];
    mk_rec T0 1 0 2 0 [33; 33];
    mk_rec T0 1 0 2 0 [] ].

Definition wA : WF := (fhA, recsA).
Definition wB : WF := (fhB, recsB).

(* The conjunctions below are split with [apply conj]: [split] would also be tried on each equation,
   where it means [eq_refl] and evaluates both sides through the unifier, far slower than the VM. *)
Lemma ex_ok : Forall wf_ok [wB; wA].
Proof. repeat apply Forall_cons; [| |apply Forall_nil]; repeat apply conj; vm_compute; reflexivity. Qed.

Lemma ex_uid : Forall (fun w => fh_uid (fst w) = [115; 114; 118]) [wB; wA].
Proof. repeat constructor. Qed.

(** hypotheses of [roundtrip] hold on a directory with two files, two instances, interleaving *)
Example ex_roundtrip_hyps :
  Forall wf_ok [wB; wA] /\ last_contig (map wf_afile [wB; wA]) (1, 0) = true
  /\ last_contig (map wf_afile [wA; wB]) (1, 0) = true /\ all_contig (map wf_afile [wA; wB]) (1, 0) = true.
Proof. split; [exact ex_ok|]. repeat apply conj; vm_compute; reflexivity. Qed.

(** ... and the reader returns the last instance's bytes, in either file order *)
Example ex_roundtrip_run :
  (exists lg, open (hqs_ents (map wf_bytes [wB; wA])) None = ROk lg
              /\ read_channel lg 1 0 0 = ROk [104; 101; 108; 108; 111; 33; 33]
              /\ read_channel lg 1 0 1 = ROk []
              /\ cat lg 1 0 0 false = ROk [104; 101; 108; 108; 111; 33; 33])
  /\ (exists lg, open (hqs_ents (map wf_bytes [wA; wB])) None = ROk lg
              /\ read_channel lg 1 0 0 = ROk [104; 101; 108; 108; 111; 33; 33]
              /\ read_channel lg 1 5 0 = ROk [120; 121; 122]).
Proof. split; eexists; repeat apply conj; vm_compute; reflexivity. Qed.

(** a cut inside the data of the first chunk of file B: I/O error for that channel, never bytes *)
Example ex_torn_run :
  exists a lg, cut_file fhB recsB 27 = Some a
    /\ last_contig [a; wf_afile wA] (1, 0) = true
    /\ open (hqs_ents [firstnN 27 (wf_bytes wB); wf_bytes wA]) None = ROk lg
    /\ read_channel lg 1 0 0 = RErr E_IO_EOF
    /\ read_channel lg 1 5 0 = ROk [120; 121; 122]
    /\ spec_read [a; wf_afile wA] (1, 0) 0 = RErr E_IO_EOF.
Proof. eexists. eexists. repeat apply conj; vm_compute; reflexivity. Qed.

(** Full-strength reading of "finished": a stream reported finished is complete. *)
Definition C19_finished_complete_full : Prop :=
  forall u ws1 w ws2 n a job task ch lg R,
    Forall wf_ok (ws1 ++ w :: ws2) -> Forall (fun w => fh_uid (fst w) = u) (ws1 ++ w :: ws2) ->
    cut_file (fst w) (snd w) n = Some a ->
    last_contig (map wf_afile ws1 ++ a :: map wf_afile ws2) (job, task) = true -> ch < 2 ->
    open (hqs_ents (map wf_bytes ws1 ++ firstnN n (wf_bytes w) :: map wf_bytes ws2)) None = ROk lg ->
    gather (lg_index lg) job task = ROk R -> in_fin R = true ->
    read_channel lg job task ch = ROk (spec_bytes (job, task) (in_id R) ch (all_recs (ws1 ++ w :: ws2))).

(** F20: the reader sets [finished] at the first end marker of either channel.  File B cut at the
    record boundary after the stderr end marker: instance 2 is reported finished, its stdout reads
    back as "hello" although "hello!!" was written. *)
Theorem finished_complete_refuted : ~ C19_finished_complete_full.
Proof.
  intros H.
  eassert (X : read_channel _ 1 0 0 = ROk _).
  { eapply (H [115; 114; 118] [] wB [wA] 49); [exact ex_ok | exact ex_uid | ..]; vm_compute; reflexivity. }
  vm_compute in X. discriminate.
Qed.

(** the witness is in the known class, and outside the class nothing of the reported instance is lost *)
Example f20_witness_in_class :
  exists a, cut_file fhB recsB 49 = Some a
            /\ f20_class [wf_afile wB; wf_afile wA] [a; wf_afile wA] (1, 0) = true.
Proof. eexists. split; vm_compute; reflexivity. Qed.

Theorem finished_outside_f20 orig fs k i :
  f20_class orig fs k = false -> max_inst k (all_seen fs) = Some i ->
  spec_finished k i (all_complete fs) = true ->
  count_inst k i (all_seen orig) <= count_inst k i (all_complete fs).
Proof.
  unfold f20_class. intros H Hm Hf. rewrite Hm, Hf in H. cbn [andb] in H.
  apply N.ltb_ge in H. exact H.
Qed.
