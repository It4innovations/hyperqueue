(** C19, "reported finished => complete" outside the known-finding class F20, at byte level.

    Setting (that of the monitor `finished-but-incomplete` of ocaml/stream/driver.ml): [orig] are
    the stream files as the writers produced them, [fs] is what a reader finds later - every file
    either skipped (gone, or cut inside its file header) or cut at some byte at or after its
    header ([cut_dir]).  If the reader reports the stream of a task finished and the situation is
    not in the class [f20_class] (finished flag raised by the first end marker although another
    record of the instance did not survive), then per channel the reader returns exactly the
    bytes the reported instance wrote into [orig] - the concatenation, in writing order, of the
    data of all its chunks; no byte is lost, none added.

    Part 1 (this file): the relation between [orig] and [fs], and counting.  The theorems are in
    [FullFinMain]. *)
From HQ Require Import Base.Prelude Gen.Consts Stream.Model Stream.Codec Stream.Index Stream.Proofs.
Open Scope N_scope.

(** [cut_dir orig fs]: every file of [orig] is either skipped by the reader or cut at some byte
    [n] at or after its file header ([cut_file]; [n] >= the file's length = the file is intact). *)
Inductive cut_dir : list AFile -> list AFile -> Prop :=
| cd_nil : cut_dir [] []
| cd_skip o orig fs : cut_dir orig fs -> cut_dir (o :: orig) fs
| cd_cut o n a orig fs :
    cut_file (af_hdr o) (af_recs o) n = Some a -> cut_dir orig fs -> cut_dir (o :: orig) (a :: fs).

Inductive sub_dir : list AFile -> list AFile -> Prop :=
| sd_nil : sub_dir [] []
| sd_skip o orig fs : sub_dir orig fs -> sub_dir (o :: orig) fs
| sd_keep o a rest orig fs :
    af_recs o = af_recs a ++ rest -> (forall r d, af_torn a = Some (r, d) -> In r rest) ->
    sub_dir orig fs -> sub_dir (o :: orig) (a :: fs).

Lemma cut_dir_sub orig fs : cut_dir orig fs -> sub_dir orig fs.
Proof.
  induction 1 as [|o orig fs _ IH|o n a orig fs Hc _ IH].
  - constructor.
  - now constructor.
  - apply cut_file_prefix in Hc as (_ & rest & Hr & Ht). now apply (sd_keep o a rest).
Qed.

Lemma sub_dir_refl fs : Forall (fun a => af_torn a = None) fs -> sub_dir fs fs.
Proof.
  induction 1 as [|a fs Ha _ IH]; [constructor|].
  apply (sd_keep a a []); [now rewrite app_nil_r | | assumption]. intros r d E. congruence.
Qed.

Lemma sub_dir_app o1 f1 o2 f2 : sub_dir o1 f1 -> sub_dir o2 f2 -> sub_dir (o1 ++ o2) (f1 ++ f2).
Proof.
  induction 1 as [|o orig fs _ IH|o a rest orig fs Hr Ht _ IH]; intros H2; cbn [app].
  - assumption.
  - constructor. now apply IH.
  - apply (sd_keep o a rest); auto.
Qed.

Lemma sumN_app {A} (f : A -> N) a b : sumN f (a ++ b) = sumN f a + sumN f b.
Proof.
  unfold sumN. induction a as [|x a IH]; cbn [app fold_right]; [now rewrite N.add_0_l|].
  rewrite IH. lia.
Qed.

Section Count.
Variables (k : key) (i : N).
Notation cnt := (count_inst k i).

Lemma picks_none p l : picks k i p -> (forall r, In r l -> of_inst k i r = false) -> filter p l = [].
Proof. intros Hp H. apply filter_none. exact (picks_false k i p l Hp H). Qed.

Lemma cnt_app a b : cnt (a ++ b) = cnt a + cnt b.
Proof. apply sumN_app. Qed.

Lemma cnt_zero l : cnt l = 0 -> forall r, In r l -> of_inst k i r = false.
Proof.
  unfold count_inst, sumN. induction l as [|x l IH]; intros H r Hr; [destruct Hr|].
  cbn [fold_right] in H. destruct (of_inst k i x) eqn:E; [lia|].
  destruct Hr as [<-|Hr]; [assumption|]. apply IH; [lia | assumption].
Qed.

Lemma sub_dir_le orig fs : sub_dir orig fs -> cnt (all_complete fs) <= cnt (all_complete orig).
Proof.
  induction 1 as [|o orig fs _ IH|o a rest orig fs Hr _ _ IH].
  - lia.
  - rewrite all_complete_cons, cnt_app. lia.
  - rewrite !all_complete_cons, !cnt_app, Hr, cnt_app. lia.
Qed.

Lemma sub_dir_eq orig fs :
  sub_dir orig fs -> cnt (all_complete orig) <= cnt (all_complete fs) ->
  (forall p, picks k i p -> filter p (all_complete orig) = filter p (all_complete fs))
  /\ (forall r, In r (torn_recs fs) -> of_inst k i r = false).
Proof.
  induction 1 as [|o orig fs Hs IH|o a rest orig fs Hr Ht Hs IH]; intros Hle.
  - split; [reflexivity | intros r []].
  - pose proof (sub_dir_le _ _ Hs) as L. rewrite all_complete_cons, cnt_app in Hle.
    destruct IH as [IH1 IH2]; [lia|]. split; [|exact IH2].
    intros p Hp. rewrite all_complete_cons, filter_app, (IH1 p Hp).
    rewrite (picks_none p (af_recs o) Hp); [reflexivity|]. apply cnt_zero. lia.
  - pose proof (sub_dir_le _ _ Hs) as L. rewrite !all_complete_cons, !cnt_app, Hr, cnt_app in Hle.
    destruct IH as [IH1 IH2]; [lia|].
    assert (Hz : forall r, In r rest -> of_inst k i r = false) by (apply cnt_zero; lia).
    split.
    + intros p Hp. rewrite !all_complete_cons, Hr, !filter_app, (IH1 p Hp), (picks_none p rest Hp Hz).
      now rewrite app_nil_r.
    + intros r Hin. rewrite torn_recs_cons in Hin. apply in_app_or in Hin as [Hin|Hin]; [|now apply IH2].
      unfold torn_rec in Hin. destruct (af_torn a) as [[r' d]|] eqn:E; [|destruct Hin].
      destruct Hin as [<-|[]]. apply Hz. exact (Ht r' d eq_refl).
Qed.

Lemma seen_complete_le fs : cnt (all_complete fs) <= cnt (all_seen fs).
Proof.
  induction fs as [|a fs IH]; [cbn; lia|]. rewrite all_complete_cons, all_seen_cons, !cnt_app. lia.
Qed.

Lemma seen_complete_eq fs :
  cnt (all_seen fs) <= cnt (all_complete fs) ->
  forall p, picks k i p -> filter p (all_seen fs) = filter p (all_complete fs).
Proof.
  induction fs as [|a fs IH]; intros Hle p Hp; [reflexivity|].
  pose proof (seen_complete_le fs) as L.
  rewrite all_complete_cons, all_seen_cons, !cnt_app in Hle.
  rewrite all_complete_cons, all_seen_cons, !filter_app, (IH ltac:(lia) p Hp).
  rewrite (picks_none p (opt_list (torn_rec a)) Hp); [now rewrite app_nil_r|]. apply cnt_zero. lia.
Qed.

End Count.

Lemma fin_seen_complete bs fs k i :
  Forall2 file_repr bs fs -> spec_finished k i (all_seen fs) = spec_finished k i (all_complete fs).
Proof.
  unfold spec_finished. induction 1 as [|b a bs fs Hb _ IH]; [reflexivity|].
  rewrite all_seen_cons, all_complete_cons, !existsb_app, IH. f_equal.
  destruct Hb as (tail & _ & Ht & _).
  destruct Ht as [t Ht | r d Hr Hd]; cbn [opt_list existsb]; [now rewrite orb_false_r|].
  destruct (N.eqb_spec (rec_size r) 0); [lia|]. now rewrite andb_false_r, !orb_false_r.
Qed.
