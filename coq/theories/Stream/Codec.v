(** Codec laws of the stream file format (C19): for the file header and the chunk header
    [decode (encode h ++ rest) = Ok (h, rest)] and every strict prefix of an encoding is
    detected as end-of-file (never mis-parsed). *)
From HQ Require Import Base.Prelude Gen.Consts Stream.Model.
Open Scope N_scope.

(* Binary counters stay folded under [simpl]/[cbn]; the settings are global, so they also hold in
   every file that requires this one. *)
Arguments N.add : simpl never.
Arguments N.sub : simpl never.
Arguments N.mul : simpl never.
Arguments N.div : simpl never.
Arguments N.modulo : simpl never.
Arguments N.eqb : simpl never.
Arguments N.ltb : simpl never.
Arguments N.leb : simpl never.
Arguments N.pow : simpl never.
Arguments N.pred : simpl never.
Arguments N.succ : simpl never.
Arguments N.of_nat : simpl never.

Lemma lenN_nil : lenN [] = 0.
Proof. reflexivity. Qed.

Lemma lenN_cons x l : lenN (x :: l) = N.succ (lenN l).
Proof. unfold lenN. simpl length. apply Nat2N.inj_succ. Qed.

Lemma lenN_app a b : lenN (a ++ b) = lenN a + lenN b.
Proof. unfold lenN. rewrite app_length. lia. Qed.

Lemma takeN_0 l : takeN 0 l = Some ([], l).
Proof. destruct l; reflexivity. Qed.

Lemma takeN_succ n x r :
  takeN (N.succ n) (x :: r) = match takeN n r with Some (a, b) => Some (x :: a, b) | None => None end.
Proof.
  cbn [takeN]. destruct (N.eqb_spec (N.succ n) 0) as [E|E]; [lia|]. now rewrite N.pred_succ.
Qed.

Lemma takeN_nil n : n <> 0 -> takeN n [] = None.
Proof. intros H. cbn [takeN]. destruct (N.eqb_spec n 0); [lia | reflexivity]. Qed.

Lemma dropN_0 l : dropN 0 l = l.
Proof. destruct l; reflexivity. Qed.

Lemma dropN_succ n x r : dropN (N.succ n) (x :: r) = dropN n r.
Proof.
  cbn [dropN]. destruct (N.eqb_spec (N.succ n) 0) as [E|E]; [lia|]. now rewrite N.pred_succ.
Qed.

Lemma dropN_nil n : dropN n [] = [].
Proof. cbn [dropN]. destruct (n =? 0); reflexivity. Qed.

Lemma firstnN_0 l : firstnN 0 l = [].
Proof. destruct l; reflexivity. Qed.

Lemma firstnN_succ n x r : firstnN (N.succ n) (x :: r) = x :: firstnN n r.
Proof.
  cbn [firstnN]. destruct (N.eqb_spec (N.succ n) 0) as [E|E]; [lia|]. now rewrite N.pred_succ.
Qed.

Lemma firstnN_nil n : firstnN n [] = [].
Proof. cbn [firstnN]. destruct (n =? 0); reflexivity. Qed.

Lemma takeN_app a b : takeN (lenN a) (a ++ b) = Some (a, b).
Proof.
  induction a as [|x a IH]; simpl app.
  - apply takeN_0.
  - rewrite lenN_cons, takeN_succ, IH. reflexivity.
Qed.

Lemma dropN_app a b : dropN (lenN a) (a ++ b) = b.
Proof.
  induction a as [|x a IH]; simpl app.
  - apply dropN_0.
  - rewrite lenN_cons, dropN_succ. exact IH.
Qed.

Lemma takeN_short n l : lenN l < n -> takeN n l = None.
Proof.
  revert n. induction l as [|x l IH]; intros n H.
  - apply takeN_nil. rewrite lenN_nil in H. lia.
  - rewrite lenN_cons in H. destruct (N.zero_or_succ n) as [->|[m ->]]; [lia|].
    rewrite takeN_succ, IH; [reflexivity | lia].
Qed.

Lemma dropN_all n l : lenN l <= n -> dropN n l = [].
Proof.
  revert n. induction l as [|x l IH]; intros n H.
  - apply dropN_nil.
  - rewrite lenN_cons in H. destruct (N.zero_or_succ n) as [->|[m ->]]; [lia|].
    rewrite dropN_succ. apply IH. lia.
Qed.

Lemma firstnN_app_more a b n : firstnN (lenN a + n) (a ++ b) = a ++ firstnN n b.
Proof.
  induction a as [|x a IH]; simpl app.
  - rewrite lenN_nil. now replace (0 + n) with n by lia.
  - rewrite lenN_cons. replace (N.succ (lenN a) + n) with (N.succ (lenN a + n)) by lia.
    rewrite firstnN_succ, IH. reflexivity.
Qed.

Lemma firstnN_app a b : firstnN (lenN a) (a ++ b) = a.
Proof. rewrite <- (N.add_0_r (lenN a)), firstnN_app_more, firstnN_0. apply app_nil_r. Qed.

Lemma firstnN_app_ge a b n : lenN a <= n -> firstnN n (a ++ b) = a ++ firstnN (n - lenN a) b.
Proof. intros H. rewrite <- firstnN_app_more. f_equal. lia. Qed.

Lemma firstnN_app_less a b n : n <= lenN a -> firstnN n (a ++ b) = firstnN n a.
Proof.
  revert n. induction a as [|x a IH]; intros n H.
  - rewrite lenN_nil in H. replace n with 0 by lia. now rewrite !firstnN_0.
  - destruct (N.zero_or_succ n) as [->|[m ->]]; [now rewrite !firstnN_0|].
    rewrite lenN_cons in H. simpl app. rewrite !firstnN_succ, IH by lia. reflexivity.
Qed.

Lemma firstnN_all n l : lenN l <= n -> firstnN n l = l.
Proof.
  revert n. induction l as [|x l IH]; intros n H.
  - apply firstnN_nil.
  - rewrite lenN_cons in H. destruct (N.zero_or_succ n) as [->|[m ->]]; [lia|].
    rewrite firstnN_succ, IH; [reflexivity | lia].
Qed.

Lemma firstnN_prefix n l : exists q, l = firstnN n l ++ q /\ lenN (firstnN n l) = N.min n (lenN l).
Proof.
  revert n. induction l as [|x l IH]; intros n.
  - exists []. rewrite firstnN_nil. split; [reflexivity | rewrite lenN_nil; lia].
  - destruct (N.zero_or_succ n) as [->|[m ->]].
    + exists (x :: l). rewrite firstnN_0. split; [reflexivity | rewrite lenN_nil; lia].
    + rewrite firstnN_succ. destruct (IH m) as (q & Hq & Hl). exists q. split.
      * simpl. now rewrite <- Hq.
      * rewrite !lenN_cons, Hl. lia.
Qed.

Lemma firstnN_strict n l : n < lenN l -> exists q, l = firstnN n l ++ q /\ q <> [].
Proof.
  intros H. destruct (firstnN_prefix n l) as (q & Hq & Hl). exists q. split; [exact Hq|].
  intros ->. rewrite app_nil_r in Hq. rewrite <- Hq in Hl. lia.
Qed.

Lemma bytes_eqb_refl a : bytes_eqb a a = true.
Proof. induction a; simpl; [reflexivity|]. rewrite IHa, N.eqb_refl. reflexivity. Qed.

Lemma bytes_eqb_eq a b : bytes_eqb a b = true <-> a = b.
Proof.
  split.
  - revert b. induction a as [|x a IH]; destruct b as [|y b]; simpl; try discriminate; [reflexivity|].
    intros H. apply andb_true_iff in H as [H1 H2]. apply N.eqb_eq in H1. subst. f_equal. auto.
  - intros ->. apply bytes_eqb_refl.
Qed.

Lemma le_enc_length k n : length (le_enc k n) = k.
Proof. revert n. induction k; intros; simpl; [reflexivity | now rewrite IHk]. Qed.

Lemma le_dec_enc k : forall n rest, le_dec k (le_enc k n ++ rest) = Some (n mod 256 ^ N.of_nat k, rest).
Proof.
  induction k as [|k IH]; intros n rest.
  - simpl. f_equal. f_equal. change (256 ^ N.of_nat 0) with 1. now rewrite N.mod_1_r.
  - cbn [le_enc le_dec app]. rewrite IH. f_equal. f_equal.
    rewrite Nat2N.inj_succ, N.pow_succ_r by lia.
    rewrite N.mod_mul_r by (try apply N.pow_nonzero; lia). reflexivity.
Qed.

Lemma le_dec_short k : forall p, (length p < k)%nat -> le_dec k p = None.
Proof.
  induction k as [|k IH]; intros p H; [inversion H|].
  destruct p as [|b p]; [reflexivity|]. cbn [le_dec]. rewrite IH; [reflexivity | simpl in H; lia].
Qed.

Lemma dec_le_enc k c n rest : n < 256 ^ N.of_nat k -> dec_le k c (le_enc k n ++ rest) = DOk n rest c.
Proof. intros H. unfold dec_le. now rewrite le_dec_enc, N.mod_small. Qed.

Lemma dec_le_short k c p : (length p < k)%nat -> dec_le k c p = DEof.
Proof. intros H. unfold dec_le. now rewrite le_dec_short. Qed.

(** [e] encodes [a] for the decoder [d]: [d] reads [a] back from [e] followed by anything, and takes
    every strict prefix of [e] for a truncated input (never for a value, never for garbage) *)
Definition codec {A} (d : bytes -> dres A) (e : bytes) (a : A) : Prop :=
  (forall rest, d (e ++ rest) = DOk a rest (lenN e))
  /\ (forall p q, e = p ++ q -> q <> [] -> d p = DEof).

Lemma codec_ret {A} (x : A) : codec (fun r => DOk x r 0) [] x.
Proof.
  split; [reflexivity|]. intros p q E Hq. symmetry in E. apply app_eq_nil in E as [_ E]. contradiction.
Qed.

Lemma app_cut {A} (e1 e2 p q : list A) :
  e1 ++ e2 = p ++ q -> q <> [] ->
  (exists l, p = e1 ++ l /\ e2 = l ++ q) \/ (exists l, e1 = p ++ l /\ l <> []).
Proof.
  intros E Hq. symmetry in E. apply app_eq_app in E as [l [[E1 E2]|[E1 E2]]]; [left; eauto|].
  destruct l as [|x l]; [left; exists [] | right; exists (x :: l); now split].
  rewrite app_nil_r in *. auto.
Qed.

Lemma codec_bind {A B} (d1 : bytes -> dres A) (k : A -> bytes -> dres B) e1 e2 a b :
  codec d1 e1 a -> codec (k a) e2 b -> codec (fun bs => dbind (d1 bs) k) (e1 ++ e2) b.
Proof.
  intros [Hok Hpre] [Kok Kpre]. split.
  - intros rest. rewrite <- app_assoc, Hok. cbn [dbind]. now rewrite Kok, lenN_app.
  - intros p q E Hq. destruct (app_cut e1 e2 p q E Hq) as [(l & -> & E2)|(l & E1 & Hl)].
    + rewrite Hok. cbn [dbind]. now rewrite (Kpre l q).
    + now rewrite (Hpre p l).
Qed.

Lemma enc_varint_len n :
  lenN (enc_varint n) = if n <? 251 then 1 else if n <? 65536 then 3 else if n <? 4294967296 then 5 else 9.
Proof.
  unfold enc_varint. repeat destruct (_ <? _); unfold lenN; simpl length; rewrite ?le_enc_length; reflexivity.
Qed.

(* after a marker byte 251/252/253, [dec_varint] is [dec_le] on 2/4/8 bytes: by evaluation *)
Lemma dec_enc_varint n rest :
  n < U64_LIMIT -> dec_varint (enc_varint n ++ rest) = DOk n rest (lenN (enc_varint n)).
Proof.
  intros H. rewrite enc_varint_len. unfold enc_varint.
  destruct (N.ltb_spec n 251) as [H1|H1].
  - simpl. destruct (N.leb_spec n 250); [reflexivity | lia].
  - destruct (N.ltb_spec n 65536) as [H2|H2]; [|destruct (N.ltb_spec n 4294967296) as [H3|H3]].
    + exact (dec_le_enc 2 3 n rest H2).
    + exact (dec_le_enc 4 5 n rest H3).
    + exact (dec_le_enc 8 9 n rest H).
Qed.

Lemma dec_varint_prefix n p q : enc_varint n = p ++ q -> q <> [] -> dec_varint p = DEof.
Proof.
  intros E Hq. destruct p as [|b p]; [reflexivity|].
  assert (Hlen : (length p < length (enc_varint n) - 1)%nat).
  { rewrite E, app_length. simpl. destruct q; [congruence | simpl; lia]. }
  unfold enc_varint in *.
  destruct (n <? 251).
  - simpl in Hlen. lia.
  - destruct (n <? 65536); [|destruct (n <? 4294967296)];
      simpl in E; injection E as <- _; simpl in Hlen; rewrite ?le_enc_length in Hlen.
    + exact (dec_le_short 2 3 p Hlen).
    + exact (dec_le_short 4 5 p Hlen).
    + exact (dec_le_short 8 9 p Hlen).
Qed.

Lemma varint_codec n : n < U64_LIMIT -> codec dec_varint (enc_varint n) n.
Proof. intros H. split; [intros rest; now apply dec_enc_varint | apply dec_varint_prefix]. Qed.

Lemma u32_codec n : n < U32_LIMIT -> codec dec_u32 (enc_varint n) n.
Proof.
  intros H. destruct (varint_codec n) as [Hok Hpre]; [unfold U32_LIMIT, U64_LIMIT in *; lia|].
  unfold dec_u32. split.
  - intros rest. rewrite Hok. destruct (N.ltb_spec n U32_LIMIT); [reflexivity | lia].
  - intros p q E Hq. now rewrite (Hpre p q).
Qed.

Lemma zigzag_roundtrip z : zigzag_dec (zigzag_enc z) = z.
Proof.
  unfold zigzag_enc, zigzag_dec. destruct (Z.leb_spec 0 z) as [H|H].
  - replace (Z.to_N (2 * z)) with (2 * Z.to_N z) by lia.
    rewrite N.even_mul. simpl orb. cbv iota.
    replace (2 * Z.to_N z / 2) with (Z.to_N z) by (rewrite N.mul_comm, N.div_mul; lia). lia.
  - replace (Z.to_N (- 2 * z - 1)) with (1 + 2 * Z.to_N (- z - 1)) by lia.
    rewrite N.even_add_mul_2. change (N.even 1) with false. cbv iota.
    replace ((1 + 2 * Z.to_N (- z - 1)) / 2) with (Z.to_N (- z - 1)).
    + lia.
    + apply N.div_unique with (r := 1); lia.
Qed.

Lemma zigzag_bound z : time_ok z = true -> zigzag_enc z < U64_LIMIT.
Proof.
  unfold time_ok, TIME_MIN, TIME_MAX, zigzag_enc, U64_LIMIT. intros H.
  apply andb_true_iff in H as [H1 H2]. destruct (Z.leb_spec 0 z); lia.
Qed.

Lemma time_codec t : time_ok t = true -> codec dec_time (enc_varint (zigzag_enc t)) t.
Proof.
  intros H. destruct (varint_codec (zigzag_enc t)) as [Hok Hpre]; [now apply zigzag_bound|].
  unfold dec_time. split.
  - intros rest. now rewrite Hok, zigzag_roundtrip, H.
  - intros p q E Hq. now rewrite (Hpre p q).
Qed.

Lemma header_ok_fields h :
  header_ok h = true ->
  time_ok (ch_time h) = true /\ ch_job h < U32_LIMIT /\ ch_task h < U32_LIMIT /\ ch_inst h < U32_LIMIT
  /\ ch_chan h < U32_LIMIT /\ ch_size h < U64_LIMIT.
Proof.
  unfold header_ok. intros H. rewrite !andb_true_iff, !N.ltb_lt in H. tauto.
Qed.

Lemma chunk_header_codec h : header_ok h = true -> codec dec_chunk_header (enc_chunk_header h) h.
Proof.
  intros H. apply header_ok_fields in H as (Ht & Hj & Hk & Hi & Hc & Hs).
  destruct h as [t j k i c s]. unfold enc_chunk_header. cbn [ch_time ch_job ch_task ch_inst ch_chan ch_size] in *.
  rewrite <- (app_nil_r (enc_varint s)).
  eapply codec_bind; [now apply time_codec|].
  eapply codec_bind; [now apply u32_codec|].
  eapply codec_bind; [now apply u32_codec|].
  eapply codec_bind; [now apply u32_codec|].
  eapply codec_bind; [now apply u32_codec|].
  eapply codec_bind; [now apply varint_codec|].
  apply codec_ret.
Qed.

Theorem dec_enc_chunk_header h rest :
  header_ok h = true ->
  dec_chunk_header (enc_chunk_header h ++ rest) = DOk h rest (lenN (enc_chunk_header h)).
Proof. intros H. apply (chunk_header_codec h H). Qed.

Theorem dec_chunk_header_prefix h p q :
  header_ok h = true -> enc_chunk_header h = p ++ q -> q <> [] -> dec_chunk_header p = DEof.
Proof. intros H. apply (chunk_header_codec h H). Qed.

Lemma enc_varint_nonempty n : enc_varint n <> [].
Proof. unfold enc_varint. repeat destruct (_ <? _); discriminate. Qed.

Lemma enc_chunk_header_len_pos h : 0 < lenN (enc_chunk_header h).
Proof.
  unfold enc_chunk_header. rewrite lenN_app.
  pose proof (enc_varint_nonempty (zigzag_enc (ch_time h))) as H.
  destruct (enc_varint (zigzag_enc (ch_time h))); [congruence|]. rewrite lenN_cons. lia.
Qed.

Lemma limit_ok l :
  l < 65536 ->
  (FRAME_LIMIT - (if l <? 251 then 1 else if l <? 65536 then 3 else if l <? 4294967296 then 5 else 9) <? l) = false.
Proof.
  intros H. apply N.ltb_ge. unfold FRAME_LIMIT.
  assert (1 <= STREAM_MAX_FRAME_MB) by (unfold STREAM_MAX_FRAME_MB; lia).
  repeat destruct (_ <? _); nia.
Qed.

Lemma dec_enc_string s rest :
  ascii_ok s = true -> lenN s < 65536 ->
  dec_string (enc_string s ++ rest) = DOk s rest (lenN (enc_string s)).
Proof.
  intros Ha Hl. unfold dec_string, enc_string. rewrite <- app_assoc.
  rewrite dec_enc_varint by (unfold U64_LIMIT; lia).
  rewrite enc_varint_len, limit_ok by assumption.
  rewrite takeN_app, Ha. f_equal. rewrite lenN_app, enc_varint_len. reflexivity.
Qed.

Lemma dec_string_prefix s p q :
  lenN s < 65536 -> enc_string s = p ++ q -> q <> [] -> dec_string p = DEof.
Proof.
  intros Hl E Hq. unfold dec_string.
  destruct (app_cut _ _ p q E Hq) as [(l & -> & E2)|(l & E1 & Hl')].
  - (* length complete, string cut *)
    rewrite dec_enc_varint by (unfold U64_LIMIT; lia).
    rewrite enc_varint_len, limit_ok by assumption.
    rewrite takeN_short; [reflexivity|].
    rewrite E2, lenN_app. destruct q; [congruence|]. rewrite lenN_cons. lia.
  - now rewrite (dec_varint_prefix (lenN s) p l).
Qed.

Lemma string_codec s : ascii_ok s = true -> lenN s < 65536 -> codec dec_string (enc_string s) s.
Proof. intros Ha Hl. split; [intros rest; now apply dec_enc_string | intros p q; now apply dec_string_prefix]. Qed.

Lemma file_header_ok_fields h :
  file_header_ok h = true -> ascii_ok (fh_uid h) = true /\ lenN (fh_uid h) < 65536 /\ fh_worker h < U32_LIMIT.
Proof.
  unfold file_header_ok. intros H. rewrite !andb_true_iff, !N.ltb_lt in H. tauto.
Qed.

Lemma file_fields_codec h :
  file_header_ok h = true ->
  codec (fun r => dbind (dec_string r) (fun uid r1 => dbind (dec_u32 r1) (fun w r2 => DOk (mkFH uid w) r2 0)))
        (enc_string (fh_uid h) ++ enc_varint (fh_worker h)) h.
Proof.
  intros H. apply file_header_ok_fields in H as (Ha & Hl & Hw). destruct h as [u w]. cbn [fh_uid fh_worker] in *.
  rewrite <- (app_nil_r (enc_varint w)).
  eapply codec_bind; [now apply string_codec|]. eapply codec_bind; [now apply u32_codec|]. apply codec_ret.
Qed.

Theorem check_header_enc h rest :
  file_header_ok h = true ->
  check_header (enc_file_header h ++ rest) = DOk h rest (lenN (enc_file_header h)).
Proof.
  intros H. destruct (file_fields_codec h H) as [Hok _].
  unfold check_header, enc_file_header. rewrite <- app_assoc, takeN_app, bytes_eqb_refl.
  rewrite Hok. now rewrite (lenN_app magic_bytes).
Qed.

(** a file cut inside its header is never accepted *)
Theorem check_header_prefix h p q :
  file_header_ok h = true -> enc_file_header h = p ++ q -> q <> [] -> check_header p = DEof.
Proof.
  intros H E Hq. destruct (file_fields_codec h H) as [_ Hpre].
  unfold check_header. destruct (app_cut _ _ p q E Hq) as [(l & -> & E2)|(l & E1 & Hl)].
  - rewrite takeN_app, bytes_eqb_refl. now rewrite (Hpre l q).
  - rewrite takeN_short; [reflexivity|]. rewrite E1, lenN_app. destruct l; [congruence|]. rewrite lenN_cons. lia.
Qed.
