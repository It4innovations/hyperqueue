(** Optimality of a solution of a row system by a pruned sweep of the bounded integer box.
    Generic.  Raising variables can only break a "<=" row with non-negative coefficients (resource rows,
    size rows) and, the weights being non-negative, can only raise the objective.  So the points that extend
    a partial assignment [pre] need no look if the lowest of them (the rest at 0) already exceeds such a row,
    or the highest (the rest at its upper bound) is no better than [best]: [cleared].  An upper bound is
    certified the same way: one above it, all else at 0, exceeds a row.  [optimal_by_enumeration] lifts the
    sweep to ALL feasible points. *)
From HQ Require Import Base.Prelude Gen.Consts Sched.Model.
Require Import ZifyBool ZifyN ZifyNat.
Open Scope Z_scope.

Lemma var_eqb_eq : forall a b, var_eqb a b = true <-> a = b.
Proof.
  intros [w r|w r|r s] [w' r'|w' r'|r' s']; simpl; split; intros H; try discriminate.
  all: try (apply andb_true_iff in H; destruct H as [H1%N.eqb_eq H2%N.eqb_eq]; subst; reflexivity).
  all: injection H as -> ->; rewrite !N.eqb_refl; reflexivity.
Qed.

Definition sol_of (al : list (var * Z)) : sol :=
  fun v => match find (fun p => var_eqb (fst p) v) al with Some p => snd p | None => 0 end.

Lemma sol_of_spec : forall al v, In (v, sol_of al v) al \/ (sol_of al v = 0 /\ ~ In v (map fst al)).
Proof.
  induction al as [|[v' x] al IH]; intros v; [right; split; [reflexivity|intros []]|].
  unfold sol_of in *. simpl. destruct (var_eqb v' v) eqn:E.
  - apply var_eqb_eq in E. subst. left. left. reflexivity.
  - destruct (IH v) as [H|[H0 Hn]]; [left; right; exact H|right; split; [exact H0|]].
    intros [->|H]; [|exact (Hn H)]. rewrite (proj2 (var_eqb_eq v v) eq_refl) in E. discriminate.
Qed.

Definition declared (m : list entry) (v : var) : bool :=
  existsb (fun e => match e with EVar v' _ _ => var_eqb v' v | ERow _ => false end) m.

Definition closed (m : list entry) : bool :=
  forallb (fun e => match e with
                    | ERow r => forallb (fun t => declared m (fst t)) (r_terms r)
                    | EVar _ _ _ => true
                    end) m.

Lemma declared_in : forall m v k w, In (EVar v k w) m -> declared m v = true.
Proof.
  intros m v k w H. unfold declared. apply existsb_exists. exists (EVar v k w). split; [assumption|].
  apply var_eqb_eq. reflexivity.
Qed.

Lemma feasible_nonneg : forall m s v, feasible m s = true -> declared m v = true -> 0 <= s v.
Proof.
  intros m s v Hf Hd. unfold declared in Hd. apply existsb_exists in Hd. destruct Hd as (e & He & Hv).
  unfold feasible in Hf. rewrite forallb_forall in Hf. specialize (Hf e He).
  destruct e as [v' k w|r]; [|discriminate]. apply var_eqb_eq in Hv. subst v'.
  destruct k; simpl in Hf; lia.
Qed.

Definition agree (m : list entry) (s1 s2 : sol) : Prop := forall v, declared m v = true -> s1 v = s2 v.

Lemma row_lhs_agree : forall m s1 s2 ts,
  agree m s1 s2 -> forallb (fun t => declared m (fst t)) ts = true ->
  fold_right (fun t acc => snd t * s1 (fst t) + acc) 0 ts = fold_right (fun t acc => snd t * s2 (fst t) + acc) 0 ts.
Proof.
  intros m s1 s2 ts Ha. induction ts as [|t ts IH]; intros H; simpl in *; [reflexivity|].
  apply andb_true_iff in H. destruct H as [H1 H2]. rewrite (Ha _ H1), (IH H2). reflexivity.
Qed.

Lemma feasible_agree : forall m s1 s2,
  closed m = true -> agree m s1 s2 -> feasible m s1 = true -> feasible m s2 = true.
Proof.
  intros m s1 s2 Hc Ha Hf. unfold feasible, closed in *. rewrite forallb_forall in Hc, Hf |- *.
  intros e He. specialize (Hf e He). specialize (Hc e He). destruct e as [v k w|r]; simpl in *.
  - rewrite <- (Ha v (declared_in m v k w He)). exact Hf.
  - unfold row_ok, row_lhs in *. rewrite <- (row_lhs_agree m s1 s2 _ Ha Hc). exact Hf.
Qed.

Definition below (m : list entry) (s1 s2 : sol) : Prop := forall v, declared m v = true -> s1 v <= s2 v.

Lemma sol_of_below : forall m al s,
  feasible m s = true -> (forall v x, In (v, x) al -> x <= s v) -> below m (sol_of al) s.
Proof.
  intros m al s Hf H v Hd.
  destruct (sol_of_spec al v) as [Hin|[-> _]]; [exact (H _ _ Hin)|exact (feasible_nonneg m s v Hf Hd)].
Qed.

Lemma sol_of_above : forall m al s,
  (forall v x, In (v, x) al -> s v <= x) -> (forall v, declared m v = true -> In v (map fst al)) ->
  below m s (sol_of al).
Proof.
  intros m al s H Hcov v Hd.
  destruct (sol_of_spec al v) as [Hin|[_ Hn]]; [exact (H _ _ Hin)|destruct (Hn (Hcov v Hd))].
Qed.

Lemma row_lhs_below : forall m s1 s2 ts,
  below m s1 s2 -> forallb (fun t => 0 <=? snd t) ts = true -> forallb (fun t => declared m (fst t)) ts = true ->
  fold_right (fun t acc => snd t * s1 (fst t) + acc) 0 ts <= fold_right (fun t acc => snd t * s2 (fst t) + acc) 0 ts.
Proof.
  intros m s1 s2 ts Hb. induction ts as [|t ts IH]; intros Hp Hd; simpl in *; [lia|].
  apply andb_true_iff in Hp, Hd. destruct Hp as [Hp1 Hp2], Hd as [Hd1 Hd2].
  specialize (IH Hp2 Hd2). specialize (Hb _ Hd1). nia.
Qed.

(** a violation at [s] that stays one wherever variables are raised *)
Definition exceeded (s : sol) (e : entry) : bool :=
  match e with
  | EVar v KBool _ => 1 <? s v
  | EVar _ KNat _ => false
  | ERow r => r_le r && forallb (fun t => 0 <=? snd t) (r_terms r) && (r_bound r <? row_lhs s r)
  end.

Lemma exceeded_infeasible : forall m s1 s2,
  closed m = true -> below m s1 s2 -> existsb (exceeded s1) m = true -> feasible m s2 = false.
Proof.
  intros m s1 s2 Hc Hb H. apply existsb_exists in H. destruct H as (e & He & H).
  apply not_true_is_false. intros Hf. unfold feasible, closed in *. rewrite forallb_forall in Hf, Hc.
  specialize (Hf e He). specialize (Hc e He). destruct e as [v [|] w|r]; simpl in *.
  - discriminate.
  - specialize (Hb v (declared_in m v _ w He)). lia.
  - apply andb_true_iff in H. destruct H as [H Hx]. apply andb_true_iff in H. destruct H as [Hle Hp].
    unfold row_ok in Hf. rewrite Hle in Hf.
    pose proof (row_lhs_below m s1 s2 _ Hb Hp Hc). unfold row_lhs in *. lia.
Qed.

Definition weights_nonneg (m : list entry) : bool :=
  forallb (fun e => match e with EVar _ _ w => 0 <=? w | ERow _ => true end) m.

Lemma objective_below : forall m s1 s2, weights_nonneg m = true -> below m s1 s2 -> objective m s1 <= objective m s2.
Proof.
  intros m s1 s2 Hw Hb. unfold objective, weights_nonneg in *. rewrite forallb_forall in Hw.
  assert (H : forall l, (forall e, In e l -> In e m) ->
     fold_right (fun e acc => match e with EVar v _ wt => wt * s1 v + acc | ERow _ => acc end) 0 l
     <= fold_right (fun e acc => match e with EVar v _ wt => wt * s2 v + acc | ERow _ => acc end) 0 l).
  { induction l as [|e l IH]; intros Hin; simpl; [lia|].
    specialize (IH (fun e' He' => Hin e' (or_intror He'))). pose proof (Hin e (or_introl eq_refl)) as He.
    destruct e as [v k w|r]; [|exact IH].
    specialize (Hw _ He). specialize (Hb v (declared_in m v k w He)). simpl in Hw. nia. }
  apply H; auto.
Qed.

Fixpoint zrange (n : nat) (from : Z) : list Z :=
  match n with O => [] | S n' => from :: zrange n' (from + 1) end.

Lemma zrange_in : forall n from x, from <= x < from + Z.of_nat n -> In x (zrange n from).
Proof.
  induction n as [|n IH]; intros from x H; simpl; [lia|].
  destruct (Z.eq_dec x from) as [->|Hne]; [left; reflexivity|right]. apply IH. lia.
Qed.

Fixpoint cleared (m : list entry) (best : Z) (ubs pre : list (var * Z)) : bool :=
  existsb (exceeded (sol_of pre)) m || (objective m (sol_of (pre ++ ubs)) <=? best)
  || match ubs with
     | [] => negb (feasible m (sol_of pre))
     | (v, ub) :: t => forallb (fun x => cleared m best t ((v, x) :: pre)) (zrange (Z.to_nat (ub + 1)) 0)
     end.

Section Sweep.
  Variables (m : list entry) (best : Z) (s : sol).
  Hypotheses (Hc : closed m = true) (Hw : weights_nonneg m = true) (Hf : feasible m s = true).

  Definition extends (ubs pre : list (var * Z)) : Prop :=
    (forall v x, In (v, x) pre -> x = s v) /\ (forall v ub, In (v, ub) ubs -> 0 <= s v <= ub)
    /\ forall v, declared m v = true -> In v (map fst (pre ++ ubs)).

  Lemma pruned_sound : forall ubs pre, extends ubs pre ->
    existsb (exceeded (sol_of pre)) m || (objective m (sol_of (pre ++ ubs)) <=? best) = true -> objective m s <= best.
  Proof.
    intros ubs pre (Hpre & Hub & Hcov) H. apply orb_true_iff in H. destruct H as [H|H].
    - rewrite (exceeded_infeasible m (sol_of pre) s Hc) in Hf; [discriminate| |exact H].
      apply sol_of_below; [exact Hf|]. intros v x Hin. apply Z.eq_le_incl, Hpre, Hin.
    - assert (Hb : below m s (sol_of (pre ++ ubs))).
      { apply sol_of_above; [|exact Hcov]. intros v x Hin. apply in_app_or in Hin.
        destruct Hin as [Hin|Hin]; [apply Z.eq_le_incl; symmetry; exact (Hpre v x Hin)|exact (proj2 (Hub v x Hin))]. }
      apply Z.leb_le in H. exact (Z.le_trans _ _ _ (objective_below m _ _ Hw Hb) H).
  Qed.

  Lemma cleared_sound : forall ubs pre, extends ubs pre -> cleared m best ubs pre = true -> objective m s <= best.
  Proof.
    induction ubs as [|[v ub] t IH]; intros pre Hext H; simpl in H;
      apply orb_true_iff in H; destruct H as [H|H]; try exact (pruned_sound _ pre Hext H);
      destruct Hext as (Hpre & Hub & Hcov).
    - (* a full point: it is [s] on the declared variables, so it is feasible *)
      rewrite (feasible_agree m s (sol_of pre) Hc) in H; [discriminate| |exact Hf].
      intros v Hd. destruct (sol_of_spec pre v) as [Hin|[_ Hn]]; [symmetry; exact (Hpre _ _ Hin)|].
      destruct Hn. rewrite <- (app_nil_r pre). exact (Hcov v Hd).
    - rewrite forallb_forall in H. apply (IH ((v, s v) :: pre)).
      + split; [|split].
        * intros v' x [[= <- <-]|Hin]; [reflexivity|exact (Hpre _ _ Hin)].
        * intros v' ub' Hin. apply Hub. right. exact Hin.
        * intros v' Hd. specialize (Hcov v' Hd). rewrite map_app, in_app_iff in *. simpl in *. tauto.
      + apply H, zrange_in. specialize (Hub v ub (or_introl eq_refl)). lia.
  Qed.
End Sweep.

Definition ub_certified (m : list entry) (ubs : list (var * Z)) : bool :=
  forallb (fun vu => declared m (fst vu) && existsb (exceeded (sol_of [(fst vu, snd vu + 1)])) m) ubs
  && forallb (fun e => match e with EVar v _ _ => existsb (fun vu => var_eqb (fst vu) v) ubs | ERow _ => true end) m.

Definition best_in_box (m : list entry) (ubs : list (var * Z)) (best : Z) : bool :=
  weights_nonneg m && cleared m best ubs [].

Theorem optimal_by_enumeration : forall m ubs best,
  closed m = true -> ub_certified m ubs = true -> best_in_box m ubs best = true ->
  forall s, feasible m s = true -> objective m s <= best.
Proof.
  intros m ubs best Hc Hu Hb s Hf.
  apply andb_true_iff in Hu, Hb. destruct Hu as [Hu1 Hu2], Hb as [Hw Hb].
  rewrite forallb_forall in Hu1, Hu2.
  apply (cleared_sound m best s Hc Hw Hf ubs []); [|exact Hb]. split; [intros v x []|split].
  - intros v ub Hin. specialize (Hu1 _ Hin). simpl in Hu1. apply andb_true_iff in Hu1. destruct Hu1 as [Hd Hx].
    split; [exact (feasible_nonneg m s v Hf Hd)|]. apply Z.nlt_ge. intros Hlt.
    rewrite (exceeded_infeasible m (sol_of [(v, ub + 1)]) s Hc) in Hf; [discriminate| |exact Hx].
    apply sol_of_below; [exact Hf|]. intros v' x [[= <- <-]|[]]. exact (proj2 (Z.le_succ_l ub (s v)) Hlt).
  - intros v Hd. unfold declared in Hd. apply existsb_exists in Hd. destruct Hd as (e & He & Hv).
    specialize (Hu2 e He). destruct e as [v' k w|r]; [|discriminate]. apply var_eqb_eq in Hv. subst v'.
    apply existsb_exists in Hu2. destruct Hu2 as (vu & Hin & Hv). apply var_eqb_eq in Hv. subst v.
    apply in_map. exact Hin.
Qed.
