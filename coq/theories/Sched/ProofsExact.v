(** C15: an EXACT class.  One worker, one resource kind, two request classes: the high class (0) with
    one priority level, the low class (1) with any number of priority levels strictly below it
    (arbitrary amounts, task counts, running tasks).  Every optimal solution of the exact row system,
    dispatched by any assignment [mapping_ok] accepts, is free of priority inversions
    ([ExactFull.exact_class_no_inversion]).  This file computes the batches of the class symbolically
    ([merge_gen], [xbatches]) and characterises ALL entries of the row system ([all_items_inv],
    [emit_inv]: completeness of the row description).  What does not depend on the queues of the instance
    is proved for [ExactFullInst.yinst], of which [xinst] is a case. *)
From HQ Require Import Base.Prelude Gen.Consts Sched.Model Sched.ProofsOrder Sched.ProofsRows Sched.ProofsCuts.
Require Import ZifyBool ZifyN ZifyNat.
From Coq Require Import Sorting.Sorted.
Open Scope N_scope.
Local Arguments N.add : simpl never. Local Arguments N.sub : simpl never. Local Arguments N.mul : simpl never.
Local Arguments N.eqb : simpl never. Local Arguments N.ltb : simpl never. Local Arguments N.leb : simpl never.
Local Arguments N.of_nat : simpl never. Local Arguments N.to_nat : simpl never. Local Arguments N.div : simpl never.
Local Arguments N.min : simpl never. Local Arguments N.max : simpl never.

Definition xworker (R F : N) (assigned : list N) : worker :=
  {| w_id := 1; w_res := [R]; w_free := [F]; w_assigned := assigned; w_blocked := []; w_term := None |}.

Definition xinst (R F : N) (assigned : list N) (ah al ph : N) (hs : list N) (lq : list (N * list N)) : inst :=
  {| i_nres := 1; i_now := 0;
     i_workers := [xworker R F assigned];
     i_classes := [ {| rc_entries := [(0, ah)]; rc_min_time := 0; rc_all := [] |}; {| rc_entries := [(0, al)]; rc_min_time := 0; rc_all := [] |} ];
     i_queues := [ {| q_ready := [(ph, hs)]; q_prefill := None |}; {| q_ready := lq; q_prefill := None |} ] |}.

(** the (priority, size) levels of the low class and the size / limit flag the merge loop ends with *)
Definition levels (lq : list (N * list N)) : list (N * N) := map (fun e => (fst e, nlen (snd e))) lq.
Fixpoint low_size (limit size : N) (lv : list (N * N)) : N :=
  match lv with
  | [] => size
  | (_, sz) :: t => if limit <? size + sz then limit else low_size limit (size + sz) t
  end.
Fixpoint low_lr (limit size : N) (lv : list (N * N)) : bool :=
  match lv with
  | [] => false
  | (_, sz) :: t => if limit <? size + sz then true else low_lr limit (size + sz) t
  end.

Definition xbatch_h (F ah : N) (hs : list N) : batch :=
  let limit := task_max_count [F] [(0, ah)] in
  {| b_rq := 0; b_cuts := []; b_size := if limit <? nlen hs then limit else nlen hs; b_limit := limit;
     b_lr := limit <? nlen hs; b_blk := true |}.

Definition xbatch_l (F ah al : N) (hs : list N) (lq : list (N * list N)) : batch :=
  let limit := task_max_count [F] [(0, al)] in
  let bh := xbatch_h F ah hs in
  {| b_rq := 1; b_cuts := [ {| c_size := 0; c_blockers := [(0, if b_lr bh then None else Some (b_size bh))] |} ];
     b_size := low_size limit 0 (levels lq); b_limit := limit;
     b_lr := low_lr limit 0 (levels lq); b_blk := false |}.

Lemma tmc1 : forall F a, task_max_count [F] [(0, a)] = N.min (F / a) SCHED_MAX_TASK_PER_WORKER.
Proof. reflexivity. Qed.

Lemma tmc1_pos : forall F a, 0 < a -> a <= F -> 1 <= task_max_count [F] [(0, a)].
Proof.
  intros F a Ha HaF. rewrite tmc1. assert (1 <= F / a) by (apply N.div_le_lower_bound; lia).
  unfold SCHED_MAX_TASK_PER_WORKER. lia.
Qed.


Definition b0 (rq limit : N) : batch :=
  {| b_rq := rq; b_cuts := []; b_size := 0; b_limit := limit; b_lr := false; b_blk := false |}.

Lemma merge_loop_S : forall f st u, merge_loop (S f) st u =
  match found_from st (highest_prio st) 0 with
  | [] => st
  | [i] => if (match u with Some u0 => Nat.eqb u0 i | None => false end)
           then merge_loop f (map_at advance_one st i) u
           else merge_loop f (map_at advance_one (add_cut st i) i) (Some i)
  | found => merge_loop f (fold_left (fun s i => map_at advance_one s i) found (fold_left add_cut found st)) None
  end.
Proof. intros. simpl. destruct (found_from st (highest_prio st) 0) as [|i [|j r]]; reflexivity. Qed.

Definition bh1 (lh nh : N) : batch :=
  {| b_rq := 0; b_cuts := []; b_size := if lh <? nh then lh else nh; b_limit := lh; b_lr := lh <? nh; b_blk := false |}.


(** the low class keeps consuming its levels once it is the only class left ([unique = Some 1]) *)
Fixpoint run (b : batch) (rem : list (N * N)) : batch :=
  match rem with
  | [] => b
  | (_, sz) :: t =>
      let s := b_size b + sz in
      if b_limit b <? s then set_size b (b_limit b) true else run (set_size b s (b_lr b)) t
  end.

Lemma merge_tail : forall rem fuel b bhf, (length rem <= fuel)%nat ->
  merge_loop fuel [(bhf, []); (b, rem)] (Some 1%nat) = [(bhf, []); (run b rem, [])].
Proof.
  induction rem as [|[p sz] t IH]; intros fuel b bhf Hf.
  - destruct fuel; [reflexivity|]. rewrite merge_loop_S. reflexivity.
  - destruct fuel as [|fuel]; [simpl in Hf; lia|]. rewrite merge_loop_S.
    assert (H1 : highest_prio [(bhf, []); (b, (p, sz) :: t)] = p) by (cbn; lia).
    rewrite H1.
    assert (F1 : found_from [(bhf, []); (b, (p, sz) :: t)] p 0 = [1%nat]) by (cbn; rewrite N.eqb_refl; reflexivity).
    rewrite F1. cbn [Nat.eqb]. cbn [map_at advance_one snd fst run].
    destruct (b_limit b <? b_size b + sz).
    + destruct fuel; [reflexivity|]. rewrite merge_loop_S. reflexivity.
    + apply IH. simpl in Hf. lia.
Qed.

Lemma run_eq : forall rem b, b_lr b = false ->
  run b rem = {| b_rq := b_rq b; b_cuts := b_cuts b; b_size := low_size (b_limit b) (b_size b) rem;
                 b_limit := b_limit b; b_lr := low_lr (b_limit b) (b_size b) rem; b_blk := b_blk b |}.
Proof.
  induction rem as [|[p sz] t IH]; intros b Hlr.
  - destruct b. simpl in *. subst. reflexivity.
  - cbn [run low_size low_lr]. destruct (b_limit b <? b_size b + sz); [reflexivity|].
    rewrite IH by (cbn; assumption). reflexivity.
Qed.

Lemma merge_gen : forall lh ll ph nh p1 n1 rest, p1 < ph -> 0 < nh ->
  merge_loop (S (S (length ((p1, n1) :: rest)))) [(b0 0 lh, [(ph, nh)]); (b0 1 ll, (p1, n1) :: rest)] None =
  [ (set_blk (bh1 lh nh), []);
    ({| b_rq := 1; b_cuts := [ {| c_size := 0; c_blockers := [(0, if lh <? nh then None else Some nh)] |} ];
        b_size := low_size ll 0 ((p1, n1) :: rest); b_limit := ll; b_lr := low_lr ll 0 ((p1, n1) :: rest); b_blk := false |}, []) ].
Proof.
  intros lh ll ph nh p1 n1 rest Hp Hnh.
  rewrite merge_loop_S.
  assert (H1 : highest_prio [(b0 0 lh, [(ph, nh)]); (b0 1 ll, (p1, n1) :: rest)] = ph) by (cbn; lia).
  rewrite H1.
  assert (F1 : found_from [(b0 0 lh, [(ph, nh)]); (b0 1 ll, (p1, n1) :: rest)] ph 0 = [0%nat]).
  { cbn. rewrite N.eqb_refl. destruct (N.eqb_spec p1 ph); [lia|reflexivity]. }
  rewrite F1.
  assert (A1 : add_cut [(b0 0 lh, [(ph, nh)]); (b0 1 ll, (p1, n1) :: rest)] 0 = [(b0 0 lh, [(ph, nh)]); (b0 1 ll, (p1, n1) :: rest)])
    by reflexivity.
  rewrite A1.
  assert (S1 : map_at advance_one [(b0 0 lh, [(ph, nh)]); (b0 1 ll, (p1, n1) :: rest)] 0 = [(bh1 lh nh, []); (b0 1 ll, (p1, n1) :: rest)]).
  { cbn [map_at advance_one snd fst b0 b_size b_limit]. replace (0 + nh) with nh by lia.
    unfold bh1. destruct (lh <? nh); reflexivity. }
  rewrite S1.
  rewrite merge_loop_S.
  assert (H2 : highest_prio [(bh1 lh nh, []); (b0 1 ll, (p1, n1) :: rest)] = p1) by (cbn; lia).
  rewrite H2.
  assert (F2 : found_from [(bh1 lh nh, []); (b0 1 ll, (p1, n1) :: rest)] p1 0 = [1%nat]) by (cbn; rewrite N.eqb_refl; reflexivity).
  rewrite F2. cbn [Nat.eqb].
  set (cut := {| c_size := 0; c_blockers := [(0, if lh <? nh then None else Some nh)] |}).
  assert (A2 : add_cut [(bh1 lh nh, []); (b0 1 ll, (p1, n1) :: rest)] 1 =
               [(set_blk (bh1 lh nh), []); (push_cut (b0 1 ll) cut, (p1, n1) :: rest)]).
  { unfold add_cut. cbn [higher_priorities mapi_from concat fst is_higher Nat.eqb negb andb nth_error b_size b0 app b_lr b_rq].
    assert (Hh : ((0 <? b_size (bh1 lh nh)) || b_lr (bh1 lh nh)) = true).
    { unfold bh1. cbn [b_size b_lr]. destruct (N.ltb_spec lh nh); [apply Bool.orb_true_r|].
      destruct (N.ltb_spec 0 nh); [reflexivity|lia]. }
    rewrite Hh. replace (0 <? 0) with false by reflexivity.
    cbn [andb orb app concat map_at snd fst]. unfold cut, bh1. cbn [b_lr b_size b_rq].
    destruct (lh <? nh); reflexivity. }
  rewrite A2.
  (* the first low level is consumed like all the later ones *)
  assert (S2 : map_at advance_one [(set_blk (bh1 lh nh), []); (push_cut (b0 1 ll) cut, (p1, n1) :: rest)] 1 =
               [(set_blk (bh1 lh nh), []);
                (if ll <? 0 + n1 then (set_size (push_cut (b0 1 ll) cut) ll true, [])
                 else (set_size (push_cut (b0 1 ll) cut) (0 + n1) false, rest))]).
  { cbn [map_at advance_one snd fst push_cut b0 b_size b_limit b_cuts b_rq b_lr b_blk app].
    destruct (ll <? 0 + n1); reflexivity. }
  rewrite S2. clear S2.
  pose proof (run_eq ((p1, n1) :: rest) (push_cut (b0 1 ll) cut) eq_refl) as Hr.
  cbn [push_cut b0 b_rq b_cuts b_size b_limit b_lr b_blk app] in Hr. rewrite <- Hr. clear Hr.
  cbn [run push_cut b0 b_size b_limit b_lr].
  destruct (ll <? 0 + n1).
  - cbn [length]. rewrite merge_loop_S. reflexivity.
  - rewrite merge_tail by (simpl; lia). reflexivity.
Qed.


Lemma xbatch_limit_h : forall R F assigned ah al ph hs lq, 0 < ah -> ah <= F -> F <= R ->
  batch_limit (xinst R F assigned ah al ph hs lq) 0 = task_max_count [F] [(0, ah)].
Proof.
  intros. unfold batch_limit. cbn [xinst i_workers fold_right].
  assert (Hc : capable (xinst R F assigned ah al ph hs lq) (xworker R F assigned) 0 = true).
  { change (capable (xinst R F assigned ah al ph hs lq) (xworker R F assigned) 0) with ((ah <=? R) && true).
    destruct (N.leb_spec ah R); [reflexivity|lia]. }
  rewrite Hc. change (task_max_count_cls (w_free (xworker R F assigned)) (class_of (xinst R F assigned ah al ph hs lq) 0)) with (task_max_count [F] [(0, ah)]).
  pose proof (tmc1_pos F ah ltac:(assumption) ltac:(assumption)).
  destruct (N.ltb_spec 0 (task_max_count [F] [(0, ah)])); lia.
Qed.

Lemma xbatch_limit_l : forall R F assigned ah al ph hs lq, 0 < al -> al <= F -> F <= R ->
  batch_limit (xinst R F assigned ah al ph hs lq) 1 = task_max_count [F] [(0, al)].
Proof.
  intros. unfold batch_limit. cbn [xinst i_workers fold_right].
  assert (Hc : capable (xinst R F assigned ah al ph hs lq) (xworker R F assigned) 1 = true).
  { change (capable (xinst R F assigned ah al ph hs lq) (xworker R F assigned) 1) with ((al <=? R) && true).
    destruct (N.leb_spec al R); [reflexivity|lia]. }
  rewrite Hc. change (task_max_count_cls (w_free (xworker R F assigned)) (class_of (xinst R F assigned ah al ph hs lq) 1)) with (task_max_count [F] [(0, al)]).
  pose proof (tmc1_pos F al ltac:(assumption) ltac:(assumption)).
  destruct (N.ltb_spec 0 (task_max_count [F] [(0, al)])); lia.
Qed.

Lemma low_size_ge : forall lv limit s, N.min limit s <= low_size limit s lv.
Proof.
  induction lv as [|[p sz] t IH]; intros limit s; cbn [low_size]; [lia|].
  destruct (N.ltb_spec limit (s + sz)); [lia|]. specialize (IH limit (s + sz)). lia.
Qed.

Lemma xbatches : forall R F assigned ah al ph hs lq,
  0 < ah -> 0 < al -> ah <= F -> al <= F -> F <= R ->
  Forall (fun e : N * list N => fst e < ph) lq -> hs <> [] -> lq <> [] -> Forall (fun e : N * list N => snd e <> []) lq ->
  create_task_batches (xinst R F assigned ah al ph hs lq) = Ok [xbatch_h F ah hs; xbatch_l F ah al hs lq].
Proof.
  intros R F assigned ah al ph hs lq Hah Hal HhF HlF HFR Hp Hhs Hls Hne.
  pose proof (tmc1_pos F ah Hah HhF) as Hlh. pose proof (tmc1_pos F al Hal HlF) as Hll.
  assert (Hnh : 1 <= nlen hs) by (destruct hs; [congruence|unfold nlen; simpl; lia]).
  destruct lq as [|[p1 ids1] lq']; [congruence|].
  inversion Hp as [|? ? Hp1 Hp']; subst. inversion Hne as [|? ? Hne1 Hne']; subst. simpl in Hp1, Hne1.
  assert (Hn1 : 1 <= nlen ids1) by (destruct ids1; [congruence|unfold nlen; simpl; lia]).
  unfold create_task_batches.
  assert (Hq : filter (fun e : N * queue => negb (queue_is_empty (snd e)))
                 (mapi_from (fun i q => (N.of_nat i, q)) (i_queues (xinst R F assigned ah al ph hs ((p1, ids1) :: lq'))) 0)
               = [(0, {| q_ready := [(ph, hs)]; q_prefill := None |}); (1, {| q_ready := (p1, ids1) :: lq'; q_prefill := None |})]).
  { destruct hs; [congruence|]. reflexivity. }
  rewrite Hq. cbn [map fst snd iter_priority_sizes q_ready q_prefill].
  rewrite xbatch_limit_h, xbatch_limit_l by assumption.
  fold (b0 0 (task_max_count [F] [(0, ah)])). fold (b0 1 (task_max_count [F] [(0, al)])).
  cbn [fold_right snd length Nat.add].
  change (map (fun e : N * list N => (fst e, nlen (snd e))) lq') with (levels lq').
  replace (S (S (S (length (levels lq') + 0)))) with (S (S (length ((p1, nlen ids1) :: levels lq')))) by (simpl; lia).
  rewrite merge_gen by lia.
  cbn [map fst b_cuts set_blk bh1].
  assert (Hp0 : forall A (v : list A), (nlen v <=? SCHED_BATCH_PRUNING_MAX_SIZE) = true ->
            prune_progressive v SCHED_BATCH_PRUNING_FIXED_PREFIX SCHED_BATCH_PRUNING_MAX_SIZE = Ok v).
  { intros A v E. unfold prune_progressive. rewrite E. reflexivity. }
  rewrite !Hp0 by reflexivity. cbn [bind collect_res set_cuts b_rq b_size b_limit b_lr b_blk b_cuts].
  cbn [filter b_size].
  assert (S1 : 0 <? (if task_max_count [F] [(0, ah)] <? nlen hs then task_max_count [F] [(0, ah)] else nlen hs) = true)
    by (destruct (task_max_count [F] [(0, ah)] <? nlen hs); lia).
  assert (S2 : 0 <? low_size (task_max_count [F] [(0, al)]) 0 ((p1, nlen ids1) :: levels lq') = true).
  { cbn [low_size]. destruct (N.ltb_spec (task_max_count [F] [(0, al)]) (0 + nlen ids1)); [lia|].
    pose proof (low_size_ge (levels lq') (task_max_count [F] [(0, al)]) (0 + nlen ids1)). lia. }
  unfold set_cuts, set_blk, bh1. cbn [b_size b_rq b_cuts b_limit b_lr b_blk].
  rewrite S1, S2. unfold xbatch_h, xbatch_l. cbn [b_lr b_size xbatch_h levels map fst snd].
  destruct (task_max_count [F] [(0, ah)] <? nlen hs); reflexivity.
Qed.

Lemma rv1_remove : forall x a n, rv_remove_multiple [x] [(0, a)] n = Ok [x - a * n].
Proof. reflexivity. Qed.

Lemma collect_res_out : forall {A B} (f : A -> res B) l out b,
  collect_res (map f l) = Ok out -> In b out -> exists a, In a l /\ f a = Ok b.
Proof.
  intros A B f. induction l as [|x t IH]; intros out b H Hin; simpl in H.
  - inversion H; subst. contradiction.
  - destruct (f x) as [bx| |] eqn:E; simpl in H; try discriminate.
    destruct (collect_res (map f t)) as [bs| |] eqn:E2; simpl in H; try discriminate.
    inversion H; subst. destruct Hin as [<-|Hin].
    + exists x. split; [left; reflexivity|assumption].
    + destruct (IH bs b eq_refl Hin) as (a & Ha & Hf). exists a. split; [right; assumption|assumption].
Qed.

Inductive gap_item (I : inst) (bs : list batch) (b : batch) (c : cut) (h : N) (bsz : option N) : item -> Prop :=
| GI_B : forall w g sz, bsz = Some sz -> In w (i_workers I) -> capable I w h = true -> gap I w h (b_rq b) = Ok g -> 0 < g ->
         gap_item I bs b c h bsz (IGapB (w_id w) (b_rq b) h (c_size c) sz g (b_size b) (xvars I bs w (b_rq b)))
| GI_U : forall w g, bsz = None -> In w (i_workers I) -> capable I w h = true -> gap I w h (b_rq b) = Ok g -> 0 < g ->
         gap_item I bs b c h bsz (IGapU (w_id w) (b_rq b) h (c_size c) g (xvars I bs w (b_rq b))).

Lemma blocker_items_inv : forall I bs b c h bsz hb ws zero its zero' it,
  (forall w, In w ws -> In w (i_workers I)) ->
  blocker_items I bs b c h bsz hb ws zero = Ok (its, zero') -> In it its -> gap_item I bs b c h bsz it.
Proof.
  intros I bs b c h bsz hb. induction ws as [|w t IH]; intros zero its zero' it Hsub H Hin.
  - simpl in H. inversion H; subst. contradiction.
  - rewrite blocker_items_cons in H. destruct (capable I w h) eqn:Hc.
    + destruct (gap I w h (b_rq b)) as [g| |] eqn:Hg; cbn [bind] in H; try discriminate.
      destruct (N.ltb_spec 0 g) as [Hpos|Hz].
      * destruct (blocker_items I bs b c h bsz hb t zero) as [[its1 z1]| |] eqn:E; cbn [bind fst snd] in H; try discriminate.
        inversion H; subst. apply in_app_or in Hin. destruct Hin as [Hin|Hin].
        -- destruct bsz as [sz|].
           ++ destruct hb; [|contradiction]. destruct Hin as [<-|[]].
              apply GI_B; auto. apply Hsub. left. reflexivity.
           ++ destruct Hin as [<-|[]]. apply GI_U; auto. apply Hsub. left. reflexivity.
        -- eapply IH; [|exact E|exact Hin]. intros w' Hw'. apply Hsub. right. assumption.
      * eapply IH; [|exact H|exact Hin]. intros w' Hw'. apply Hsub. right. assumption.
    + eapply IH; [|exact H|exact Hin]. intros w' Hw'. apply Hsub. right. assumption.
Qed.

Inductive batch_item (I : inst) (bs : list batch) (b : batch) : item -> Prop :=
| BI_size : b_lr b = false -> batch_item I bs b (ISize (b_rq b) (b_size b))
| BI_gap : forall c h bsz it, In c (b_cuts b) -> In (h, bsz) (c_blockers c) -> gap_item I bs b c h bsz it -> batch_item I bs b it
| BI_zeroB : forall c h sz zero, In c (b_cuts b) -> In (h, Some sz) (c_blockers c) ->
             (forall s : sol, lhs s (ones zero) = zero_sum I bs s h (b_rq b) (i_workers I)) ->
             batch_item I bs b (IZeroB (b_rq b) h (c_size c) sz (b_size b) zero)
| BI_zeroU : forall c h zero, In c (b_cuts b) -> In (h, None) (c_blockers c) ->
             (forall s : sol, lhs s (ones zero) = zero_sum I bs s h (b_rq b) (i_workers I)) ->
             batch_item I bs b (IZeroU (b_rq b) h (c_size c) zero).

Lemma cut_items_inv : forall I bs b c bl seen its seen' it,
  cut_items I bs b c bl seen = Ok (its, seen') -> In it its ->
  (exists h bsz, In (h, bsz) bl /\ gap_item I bs b c h bsz it)
  \/ (exists h sz zero, In (h, Some sz) bl /\ it = IZeroB (b_rq b) h (c_size c) sz (b_size b) zero
                        /\ forall s : sol, lhs s (ones zero) = zero_sum I bs s h (b_rq b) (i_workers I))
  \/ (exists h zero, In (h, None) bl /\ it = IZeroU (b_rq b) h (c_size c) zero
                     /\ forall s : sol, lhs s (ones zero) = zero_sum I bs s h (b_rq b) (i_workers I)).
Proof.
  intros I bs b c. induction bl as [|[h0 bsz0] t IH]; intros seen its seen' it H Hin.
  - simpl in H. inversion H; subst. contradiction.
  - simpl in H.
    destruct (blocker_items I bs b c h0 bsz0 _ (i_workers I) []) as [[its1 zero]| |] eqn:E; simpl in H; try discriminate.
    assert (Hz : forall s : sol, lhs s (ones zero) = zero_sum I bs s h0 (b_rq b) (i_workers I)).
    { intros s. rewrite (blocker_items_zero I bs s _ _ _ _ _ _ _ _ _ E). simpl. lia. }
    set (zz := match zero with [] => _ | _ => _ end) in H. destruct zz as [zitem seen1] eqn:Ezz.
    destruct (cut_items I bs b c t seen1) as [[its2 seen2]| |] eqn:E2; simpl in H; try discriminate.
    inversion H; subst. apply in_app_or in Hin. destruct Hin as [Hin|Hin].
    + left. exists h0, bsz0. split; [left; reflexivity|].
      eapply blocker_items_inv; [|exact E|exact Hin]. auto.
    + apply in_app_or in Hin. destruct Hin as [Hin|Hin].
      * unfold zz in Ezz. destruct zero as [|v vs]; [inversion Ezz; subst; contradiction|].
        destruct bsz0 as [sz|].
        -- destruct (match count_vars I bs h0 with [] => false | _ => true end); inversion Ezz; subst; [|contradiction].
           destruct Hin as [<-|[]]. right. left. exists h0, sz, (v :: vs). split; [left; reflexivity|split; [reflexivity|assumption]].
        -- destruct (existsb (N.eqb h0) seen); inversion Ezz; subst; [contradiction|].
           destruct Hin as [<-|[]]. right. right. exists h0, (v :: vs). split; [left; reflexivity|split; [reflexivity|assumption]].
      * destruct (IH _ _ _ it E2 Hin) as [(h & bsz & Hb & Hg)|[(h & sz & z0 & Hb & He & Hs)|(h & z0 & Hb & He & Hs)]].
        -- left. exists h, bsz. split; [right; assumption|assumption].
        -- right. left. exists h, sz, z0. split; [right; assumption|auto].
        -- right. right. exists h, z0. split; [right; assumption|auto].
Qed.

Lemma cuts_items_inv : forall I bs b cs seen its it,
  cuts_items I bs b cs seen = Ok its -> In it its ->
  exists c, In c cs /\
  ((exists h bsz, In (h, bsz) (c_blockers c) /\ gap_item I bs b c h bsz it)
   \/ (exists h sz zero, In (h, Some sz) (c_blockers c) /\ it = IZeroB (b_rq b) h (c_size c) sz (b_size b) zero
                         /\ forall s : sol, lhs s (ones zero) = zero_sum I bs s h (b_rq b) (i_workers I))
   \/ (exists h zero, In (h, None) (c_blockers c) /\ it = IZeroU (b_rq b) h (c_size c) zero
                      /\ forall s : sol, lhs s (ones zero) = zero_sum I bs s h (b_rq b) (i_workers I))).
Proof.
  intros I bs b. induction cs as [|c0 t IH]; intros seen its it H Hin.
  - simpl in H. inversion H; subst. contradiction.
  - simpl in H. destruct (cut_items I bs b c0 (c_blockers c0) seen) as [[its1 seen1]| |] eqn:E; simpl in H; try discriminate.
    destruct (cuts_items I bs b t seen1) as [its2| |] eqn:E2; simpl in H; try discriminate.
    inversion H; subst. apply in_app_or in Hin. destruct Hin as [Hin|Hin].
    + exists c0. split; [left; reflexivity|]. eapply cut_items_inv; eassumption.
    + destruct (IH _ _ it E2 Hin) as (c & Hc & Hx). exists c. split; [right; assumption|assumption].
Qed.

Lemma all_items_inv : forall I bs its it, all_items I bs = Ok its -> In it its ->
  exists b, In b bs /\ batch_item I bs b it.
Proof.
  intros I bs its it H Hin. unfold all_items in H.
  destruct (collect_res (map (batch_items I bs) bs)) as [l| |] eqn:E; simpl in H; try discriminate.
  inversion H; subst. apply in_concat in Hin. destruct Hin as (bi & Hbi & Hin).
  destruct (collect_res_out _ _ _ _ E Hbi) as (b & Hb & Hf). exists b. split; [assumption|].
  unfold batch_items in Hf. destruct (count_vars I bs (b_rq b)); [inversion Hf; subst; contradiction|].
  destruct (cuts_items I bs b (b_cuts b) []) as [ci| |] eqn:E3; simpl in Hf; try discriminate. inversion Hf; subst.
  apply in_app_or in Hin. destruct Hin as [Hin|Hin].
  - destruct (b_lr b) eqn:Elr; [contradiction|]. destruct Hin as [<-|[]]. apply BI_size. assumption.
  - destruct (cuts_items_inv _ _ _ _ _ _ it E3 Hin) as (c & Hc & [(h & bsz & Hb' & Hg)|[(h & sz & z0 & Hb' & -> & Hs)|(h & z0 & Hb' & -> & Hs)]]).
    + eapply BI_gap; eassumption.
    + eapply BI_zeroB; eassumption.
    + eapply BI_zeroU; eassumption.
Qed.

Lemma emit_inv : forall I bs its created e, In e (emit I bs created its) ->
  (exists it, In it its /\ e = ERow (item_row I bs it))
  \/ (exists it h sz, In it its /\ item_bvar it = Some (h, sz) /\ (e = EVar (VB h sz) KBool 0%Z \/ e = ERow (blk_row I bs h sz))).
Proof.
  intros I bs. induction its as [|i0 t IH]; intros created e Hin; [contradiction|].
  simpl in Hin. destruct (item_bvar i0) as [[h sz]|] eqn:Eb.
  - destruct (pair_mem (h, sz) created).
    + destruct Hin as [<-|Hin]; [left; exists i0; split; [left|]; reflexivity|].
      destruct (IH _ _ Hin) as [(it & Hi & He)|(it & h' & sz' & Hi & Hb & He)].
      * left. exists it. split; [right; assumption|assumption].
      * right. exists it, h', sz'. split; [right; assumption|auto].
    + destruct Hin as [<-|[<-|[<-|Hin]]].
      * right. exists i0, h, sz. split; [left; reflexivity|auto].
      * right. exists i0, h, sz. split; [left; reflexivity|auto].
      * left. exists i0. split; [left|]; reflexivity.
      * destruct (IH _ _ Hin) as [(it & Hi & He)|(it & h' & sz' & Hi & Hb & He)].
        -- left. exists it. split; [right; assumption|assumption].
        -- right. exists it, h', sz'. split; [right; assumption|auto].
  - destruct Hin as [<-|Hin]; [left; exists i0; split; [left|]; reflexivity|].
    destruct (IH _ _ Hin) as [(it & Hi & He)|(it & h' & sz' & Hi & Hb & He)].
    + left. exists it. split; [right; assumption|assumption].
    + right. exists it, h', sz'. split; [right; assumption|auto].
Qed.

Lemma objective_app : forall a b s, objective (a ++ b) s = (objective a s + objective b s)%Z.
Proof.
  intros a b s. unfold objective. induction a as [|e t IH]; simpl; [lia|].
  rewrite IH. destruct e; lia.
Qed.

Lemma objective_emit : forall I bs its created s, objective (emit I bs created its) s = 0%Z.
Proof.
  intros I bs. induction its as [|i0 t IH]; intros created s; [reflexivity|].
  simpl. destruct (item_bvar i0) as [hs|].
  - destruct (pair_mem hs created); unfold objective in *; simpl; rewrite IH; lia.
  - unfold objective in *. simpl. apply IH.
Qed.


Section ExactD.
Variables (R F : N) (assigned : list N) (ah al ph : N) (hs : list N) (lq : list (N * list N)).
Hypothesis Hp : Forall (fun e : N * list N => fst e < ph) lq.

Let I := xinst R F assigned ah al ph hs lq.

Definition th (id : N) : dtask := {| t_id := id; t_rq := 0; t_prio := ph |}.
Definition low_tasks : list dtask :=
  concat (map (fun e : N * list N => map (fun id => {| t_id := id; t_rq := 1; t_prio := fst e |}) (snd e)) lq).

Lemma x_ready : ready_tasks I = map th hs ++ low_tasks.
Proof.
  unfold ready_tasks, low_tasks. cbn [I xinst i_queues mapi_from concat q_ready map snd fst].
  rewrite !app_nil_r. reflexivity.
Qed.

Lemma low_tasks_prio : forall t, In t low_tasks -> t_rq t = 1 /\ t_prio t < ph.
Proof.
  intros t Ht. unfold low_tasks in Ht. apply in_concat in Ht. destruct Ht as (l & Hl & Ht).
  apply in_map_iff in Hl. destruct Hl as (e & <- & He). apply in_map_iff in Ht. destruct Ht as (id & <- & _).
  simpl. split; [reflexivity|]. rewrite Forall_forall in Hp. apply (Hp e He).
Qed.

Lemma x_ready_cases : forall t, In t (ready_tasks I) ->
  (t_rq t = 0 /\ t_prio t = ph /\ In (t_id t) hs) \/ (t_rq t = 1 /\ t_prio t < ph /\ In t low_tasks).
Proof.
  intros t Ht. rewrite x_ready in Ht. apply in_app_or in Ht. destruct Ht as [Ht|Ht].
  - apply in_map_iff in Ht. destruct Ht as (id & <- & Hid). simpl. auto.
  - right. destruct (low_tasks_prio t Ht). auto.
Qed.

Lemma find_task_in : forall ts id t, find_task ts id = Some t -> In t ts /\ t_id t = id.
Proof.
  intros ts id t H. unfold find_task in H. apply find_some in H. destruct H as [H1 H2]. apply N.eqb_eq in H2. auto.
Qed.

Lemma list_eqb_eq : forall a b, list_eqb a b = true -> a = b.
Proof.
  induction a as [|x a IH]; intros [|y b] H; simpl in H; try discriminate; [reflexivity|].
  apply andb_true_iff in H. destruct H as [H1 H2]. apply N.eqb_eq in H1. subst. f_equal. auto.
Qed.

Lemma sorted_insert_in : forall x l y, In y (sorted_insert x l) <-> y = x \/ In y l.
Proof.
  induction l as [|z t IH]; intros y; simpl; [intuition|].
  destruct (x <=? z); simpl; [intuition|]. rewrite IH. intuition.
Qed.
Lemma sortN_in : forall l y, In y (sortN l) <-> In y l.
Proof.
  induction l as [|x t IH]; intros y; simpl; [tauto|]. rewrite sorted_insert_in, IH. intuition.
Qed.

End ExactD.


Lemma inversion_witness : forall I d, inversion I d = true ->
  exists p t w u, In p d /\ find_task (ready_tasks I) (fst p) = Some t /\ find_worker I (snd p) = Some w
    /\ In u (ready_tasks I) /\ dispatched d (t_id u) = false /\ t_prio t < t_prio u
    /\ fits_without_lower I d w u = true.
Proof.
  intros I d Einv. unfold inversion in Einv. destruct (inversions I d) as [|x xs] eqn:Ex; [discriminate|].
  assert (Hx : In x (inversions I d)) by (rewrite Ex; left; reflexivity).
  unfold inversions in Hx. apply in_concat in Hx. destruct Hx as (l1 & Hl1 & Hx).
  apply in_map_iff in Hl1. destruct Hl1 as (p & <- & Hp).
  destruct (find_task (ready_tasks I) (fst p)) as [t|] eqn:Et; [|contradiction].
  destruct (find_worker I (snd p)) as [w|] eqn:Ew; [|contradiction].
  apply in_concat in Hx. destruct Hx as (l2 & Hl2 & Hx).
  apply in_map_iff in Hl2. destruct Hl2 as (u & <- & Hu).
  match type of Hx with In _ (if ?c then _ else _) => destruct c eqn:Ec; [|contradiction] end.
  repeat (apply andb_true_iff in Ec; destruct Ec as [Ec ?]). apply negb_true_iff in Ec.
  exists p, t, w, u. repeat split; try assumption. apply N.ltb_lt. assumption.
Qed.

Lemma rv_sub_checked_le : forall rq v v', rv_sub_checked v rq = Some v' -> forall r, rv_get v' r <= rv_get v r.
Proof.
  induction rq as [|[r0 a] t IH]; intros v v' H r; simpl in H.
  - inversion H; subst. lia.
  - destruct (Nat.ltb_spec (N.to_nat r0) (length v)) as [Hin|]; [|discriminate].
    destruct (N.leb_spec a (rv_get v r0)); [|discriminate]. simpl in H.
    specialize (IH _ _ H r). rewrite rv_get_set in IH by assumption.
    destruct (N.eqb_spec r r0); subst; lia.
Qed.

Lemma sub_all_le : forall I rqs v v', sub_all I v rqs = Some v' -> forall r, rv_get v' r <= rv_get v r.
Proof.
  induction rqs as [|rq t IH]; intros v v' H r; simpl in H.
  - inversion H; subst. lia.
  - destruct (rv_sub_checked v (req_of I rq)) as [v1|] eqn:E; [|discriminate].
    pose proof (rv_sub_checked_le _ _ _ E r). specialize (IH _ _ H r). lia.
Qed.

Lemma lhs_ones_nonneg : forall (s : sol) vs, (forall v, (0 <= s v)%Z) -> (0 <= lhs s (ones vs))%Z.
Proof. intros s vs H. induction vs as [|v t IH]; simpl; [lia|]. specialize (H v). lia. Qed.

Lemma feasible_app : forall a b s, feasible (a ++ b) s = feasible a s && feasible b s.
Proof. intros. unfold feasible. apply forallb_app. Qed.


Lemma sorted_app_rel : forall {A} (R : A -> A -> Prop) a b, StronglySorted R (a ++ b) ->
  forall x y, In x a -> In y b -> R x y.
Proof.
  intros A R. induction a as [|z a IH]; intros b Hs x y Hx Hy; [contradiction|].
  simpl in Hs. inversion Hs as [|? ? Hs' Hall]; subst. destruct Hx as [->|Hx].
  - rewrite Forall_forall in Hall. apply Hall. apply in_or_app. right. assumption.
  - apply (IH b Hs' x y Hx Hy).
Qed.

Lemma nodup_snd_inj : forall (l : list (N * N)) p p' i, NoDup (map snd l) -> In (p, i) l -> In (p', i) l -> p = p'.
Proof.
  induction l as [|[q j] t IH]; intros p p' i Hnd H1 H2; [contradiction|].
  simpl in Hnd. inversion Hnd as [|? ? Hnj Hnd']; subst.
  destruct H1 as [E1|H1]; destruct H2 as [E2|H2].
  - congruence.
  - inversion E1; subst. exfalso. apply Hnj. change i with (snd (p', i)). apply in_map. assumption.
  - inversion E2; subst. exfalso. apply Hnj. change i with (snd (p, i)). apply in_map. assumption.
  - apply (IH p p' i Hnd' H1 H2).
Qed.
