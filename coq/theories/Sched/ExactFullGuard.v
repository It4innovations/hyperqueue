(** C15, exact class with interleaved levels: existence of the cut that guards a waiting task (see
    [guard_cut]); two-phase induction over the merge loop. *)
From HQ Require Import Base.Prelude Gen.Consts Sched.Model Sched.ProofsRows Sched.ProofsExact Sched.ExactFullMerge.
Require Import ZifyBool ZifyN ZifyNat.
From Coq Require Import Sorting.Sorted.
Open Scope N_scope.
Local Arguments N.add : simpl never. Local Arguments N.sub : simpl never. Local Arguments N.mul : simpl never.
Local Arguments N.eqb : simpl never. Local Arguments N.ltb : simpl never. Local Arguments N.leb : simpl never.
Local Arguments N.of_nat : simpl never. Local Arguments N.to_nat : simpl never. Local Arguments N.div : simpl never.
Local Arguments N.min : simpl never. Local Arguments N.max : simpl never.

(** * Existence of the cut that guards a waiting task

    Class X has a level of priority [p] (the waiting task's), class Y a level [q < p] that is reached
    before Y's limit (a task of it is dispatched).  Then Y ends with a cut of size at most Y's tasks of
    priority >= p whose blocker X is unbounded or asks for at least all X tasks of priority >= p. *)

Definition strong (e : ent) (G : N) : Prop := b_lr (fst e) = true \/ G <= b_size (fst e).

Definition guard_cut (eX' eY' : ent) (G GY : N) : Prop :=
  exists c bsz, In c (b_cuts (fst eY')) /\ c_size c <= GY /\ c_blockers c = [(b_rq (fst eX'), bsz)]
                /\ match bsz with None => True | Some sz => G <= sz end.

Lemma strong_hi : forall e G, 0 < G -> strong e G -> hi (fst e) = true.
Proof.
  intros e G HG [H|H]; unfold hi; [rewrite H; apply Bool.orb_true_r|].
  destruct (N.ltb_spec 0 (b_size (fst e))); [reflexivity|lia].
Qed.

Lemma strong_numeq : forall e e' G, numeq e e' -> strong e G -> strong e' G.
Proof. intros e e' G (A1 & A2 & _) [H|H]; [left; congruence|right; lia]. Qed.

Lemma strong_adv : forall e G, Einv e -> strong e G -> strong (advance_one e) G.
Proof.
  intros [b [|[p sz] t]] G He H; [exact H|]. destruct (advance_tot b p sz t He) as (_ & _ & _ & T4).
  pose proof (Einv_lr_false _ _ _ He) as Hlr. destruct H as [H|H]; [cbn [fst] in H; congruence|].
  right. cbn [fst] in H. lia.
Qed.

Lemma strong_blocker : forall e G, strong e G ->
  exists bsz, blocker_of (fst e) = (b_rq (fst e), bsz) /\ match bsz with None => True | Some sz => G <= sz end.
Proof.
  intros e G H. unfold blocker_of. destruct (b_lr (fst e)) eqn:E.
  - exists None. split; [reflexivity|exact I].
  - exists (Some (b_size (fst e))). split; [reflexivity|]. destruct H as [H|H]; [congruence|assumption].
Qed.

Lemma sum_ge_pos : forall p rem, Forall (fun l => 0 < snd l) rem -> In p (map fst rem) -> 0 < sum_ge p rem.
Proof.
  intros p rem Hpos Hin. induction rem as [|l t IH]; [contradiction|]. cbn [sum_ge].
  inversion Hpos as [|? ? Hl Ht]; subst. destruct Hin as [<-|Hin].
  - destruct (N.leb_spec (fst l) (fst l)); lia.
  - specialize (IH Ht Hin). lia.
Qed.

(** the X side: its head (priority >= p) is consumed *)
Lemma X_adv : forall e ed pa sa ta p, Einv e -> numeq e ed -> snd e = (pa, sa) :: ta -> In p (prios e) ->
  strong (advance_one ed) (Tge e p)
  \/ (In p (prios (advance_one ed)) /\ Tge (advance_one ed) p = Tge e p).
Proof.
  intros e [bd rd] pa sa ta p He Hn Hs Hin. pose proof (numeq_Einv _ _ Hn He) as Hed.
  pose proof Hn as (A1 & A2 & A3 & A4 & A5). cbn [fst snd] in A1, A2, A3, A4, A5. rewrite Hs in A5. subst rd.
  pose proof (Einv_lr_false _ _ _ Hed) as Hlr.
  destruct (desc_tail _ _ (ei_desc _ Hed)) as [_ Hlt]. cbn [fst] in Hlt.
  unfold prios in Hin. rewrite Hs in Hin. cbn [map fst] in Hin.
  assert (Hp : p <= pa).
  { destruct Hin as [<-|Hin]; [lia|]. apply in_map_iff in Hin. destruct Hin as (l & <- & Hl).
    rewrite Forall_forall in Hlt. specialize (Hlt l Hl). lia. }
  assert (HT : Tge e p = b_size bd + sa + sum_ge p ta).
  { unfold Tge. rewrite Hs, <- A1. cbn [sum_ge fst snd]. destruct (N.leb_spec p pa); lia. }
  rewrite advance_cons. destruct (N.ltb_spec (b_limit bd) (b_size bd + sa)) as [Hhit|Hno].
  - left. left. reflexivity.
  - destruct Hin as [<-|Hin].
    + left. right. cbn [fst set_size b_size]. rewrite HT. rewrite (sum_ge_zero pa ta); [lia|assumption].
    + right. split; [exact Hin|]. rewrite HT. unfold Tge. cbn [fst snd set_size b_size]. lia.
Qed.

(** the Y side: its head (priority >= p > q) is consumed *)
Lemma Y_adv : forall e ed pb sb tb p q, Einv e -> numeq e ed -> snd e = (pb, sb) :: tb ->
  In q (prios e) -> q < p -> p <= pb -> lr_gt e q = false ->
  In q (prios (advance_one ed)) /\ Tge (advance_one ed) p = Tge e p /\ lr_gt (advance_one ed) q = false.
Proof.
  intros e [bd rd] pb sb tb p q He Hn Hs Hin Hq Hp Hlr. pose proof (numeq_Einv _ _ Hn He) as Hed.
  pose proof Hn as (A1 & A2 & A3 & A4 & A5). cbn [fst snd] in A1, A2, A3, A4, A5. rewrite Hs in A5. subst rd.
  pose proof (Einv_lr_false _ _ _ Hed) as Hlrd.
  destruct (advance_below bd pb sb tb q Hed ltac:(lia)) as [B1 B2].
  rewrite (numeq_lr_gt _ _ q Hn) in B1, B2. rewrite Hlr in B1. specialize (B2 Hlr).
  unfold prios in Hin. rewrite Hs in Hin. cbn [map fst] in Hin.
  destruct Hin as [<-|Hin]; [lia|].
  assert (Hno : b_size bd + sb <= b_limit bd).
  { unfold lr_gt in Hlr. apply Bool.orb_false_iff in Hlr. destruct Hlr as [_ Hl]. apply N.ltb_ge in Hl.
    unfold Tgt in Hl. rewrite Hs in Hl. cbn [sum_gt fst snd] in Hl. destruct (N.ltb_spec q pb); lia. }
  split; [|split; [|exact B1]].
  - rewrite advance_cons. destruct (N.ltb_spec (b_limit bd) (b_size bd + sb)); [lia|exact Hin].
  - rewrite advance_cons. destruct (N.ltb_spec (b_limit bd) (b_size bd + sb)); [lia|].
    unfold Tge. rewrite Hs, <- A1. cbn [fst snd set_size b_size sum_ge]. destruct (N.leb_spec p pb); lia.
Qed.

Lemma head_ge : forall e p0 s0 t0 p, Einv e -> snd e = (p0, s0) :: t0 -> In p (prios e) -> p <= p0.
Proof.
  intros e p0 s0 t0 p He Hs Hin. unfold prios in Hin. rewrite Hs in Hin.
  pose proof (desc_le_head _ _ ltac:(rewrite <- Hs; apply (ei_desc _ He))) as Hle.
  apply in_map_iff in Hin. destruct Hin as (l & <- & Hl). rewrite Forall_forall in Hle. apply (Hle l Hl).
Qed.

Lemma not_some1 : forall u : option nat, u <> Some 1%nat -> (match u with Some u0 => Nat.eqb u0 1 | None => false end) = false.
Proof. intros [[|[|n]]|] H; try reflexivity. congruence. Qed.

Lemma cut_survives_B : forall f eA eB u eA' eB' c, Einv eA -> Einv eB -> (length (snd eA) + length (snd eB) < f)%nat ->
  merge_loop f [eA; eB] u = [eA'; eB'] -> In c (b_cuts (fst eB)) -> In c (b_cuts (fst eB')) /\ b_rq (fst eA') = b_rq (fst eA).
Proof.
  intros f eA eB u eA' eB' c HA HB Hlen E Hin.
  destruct (merge2_post f eA eB u HA HB Hlen) as (eA2 & eB2 & E2 & PA & PB).
  rewrite E in E2. injection E2 as <- <-. split.
  - destruct (pz_cuts _ _ _ PB) as (l & -> & _). apply in_or_app. left. assumption.
  - apply (pz_rq _ _ _ PA).
Qed.

Lemma cut_now_guard : forall eX eY G GY, 0 < G -> strong eX G -> b_size (fst eY) <= GY ->
  In (cut_now eY eX) (b_cuts (fst (with_cut eY eX)))
  /\ c_size (cut_now eY eX) <= GY
  /\ exists bsz, c_blockers (cut_now eY eX) = [(b_rq (fst eX), bsz)] /\ match bsz with None => True | Some sz => G <= sz end.
Proof.
  intros eX eY G GY HG Hst Hsz. split; [|split].
  - rewrite with_cut_cuts, (strong_hi _ _ HG Hst). apply in_or_app. right. left. reflexivity.
  - exact Hsz.
  - destruct (strong_blocker _ _ Hst) as (bsz & Hb & Hm). exists bsz. split; [|exact Hm]. unfold cut_now. cbn [c_blockers]. rewrite Hb. reflexivity.
Qed.

Lemma phase2_B : forall f eX eY u G GY eX' eY', Einv eX -> Einv eY -> (length (snd eX) + length (snd eY) < f)%nat ->
  u <> Some 1%nat -> snd eY <> [] -> 0 < G -> strong eX G -> b_size (fst eY) <= GY ->
  merge_loop f [eX; eY] u = [eX'; eY'] -> guard_cut eX' eY' G GY /\ b_rq (fst eX') = b_rq (fst eX).
Proof.
  induction f as [|f IH]; intros eX eY u G GY eX' eY' HX HY Hlen Hu Hne HG Hst Hsz E; [lia|].
  rewrite merge2_step in E.
  (* the iteration that consumes Y's head makes the cut *)
  assert (UseB : forall eX1 eY1 u1, numeq eX eX1 -> numeq eY eY1 ->
            merge_loop f [eX1; advance_one (with_cut eY1 eX1)] u1 = [eX'; eY'] ->
            guard_cut eX' eY' G GY /\ b_rq (fst eX') = b_rq (fst eX)).
  { intros eX1 eY1 u1 NX NY E1.
    destruct (cut_now_guard eX1 eY1 G GY HG (strong_numeq _ _ _ NX Hst)) as (C1 & C2 & bsz & C3 & C4).
    { destruct NY as (A1 & _). rewrite A1. assumption. }
    pose proof (numeq_Einv _ _ NX HX) as HX1. pose proof (numeq_Einv _ _ NY HY) as HY1.
    destruct (cut_survives_B f eX1 (advance_one (with_cut eY1 eX1)) u1 eX' eY' (cut_now eY1 eX1) HX1
                (Einv_advance _ (Einv_with_cut _ _ HY1))) as [S1 S2]; [|exact E1|rewrite advance_cuts; exact C1|].
    { pose proof (adv_len (with_cut eY1 eX1)) as Hl. rewrite with_cut_rem in Hl.
      destruct NX as (_ & _ & _ & _ & NX5). destruct NY as (_ & _ & _ & _ & NY5). rewrite NX5, NY5 in *.
      destruct (snd eY); [congruence|]. cbn [length] in *. lia. }
    assert (Hrq : b_rq (fst eX') = b_rq (fst eX)) by (rewrite S2; apply NX).
    split; [|exact Hrq]. exists (cut_now eY1 eX1), bsz. split; [exact S1|]. split; [exact C2|]. split; [|exact C4].
    rewrite C3, S2. reflexivity. }
  assert (UseA : forall eXd eY1 u1, numeq eX eXd -> numeq eY eY1 -> u1 <> Some 1%nat -> snd eX <> [] ->
            merge_loop f [advance_one eXd; eY1] u1 = [eX'; eY'] ->
            guard_cut eX' eY' G GY /\ b_rq (fst eX') = b_rq (fst eX)).
  { intros eXd eY1 u1 NX NY Hu1 HneX E1.
    pose proof (numeq_Einv _ _ NX HX) as HX1. pose proof (numeq_Einv _ _ NY HY) as HY1.
    destruct (IH (advance_one eXd) eY1 u1 G GY eX' eY' (Einv_advance _ HX1) HY1) as [I1 I2]; try assumption.
    - pose proof (adv_len eXd) as Hl.
      destruct NX as (_ & _ & _ & _ & NX5). destruct NY as (_ & _ & _ & _ & NY5). rewrite NX5, NY5 in *.
      destruct (snd eX); [congruence|]. cbn [length] in *. lia.
    - destruct NY as (_ & _ & _ & _ & NY5). rewrite NY5. assumption.
    - apply strong_adv; [assumption|]. eapply strong_numeq; eassumption.
    - destruct NY as (A1 & _). rewrite A1. assumption.
    - split; [exact I1|]. rewrite I2, advance_one_rq. apply NX. }
  unfold head_prio in E. destruct (snd eY) as [|[pb sb] tb] eqn:EY; [congruence|].
  assert (HB : stepB f eX eY u = [eX'; eY'] -> guard_cut eX' eY' G GY /\ b_rq (fst eX') = b_rq (fst eX)).
  { unfold stepB. rewrite (not_some1 u Hu). intros E1.
    apply (UseB (with_blk eX) eY (Some 1%nat)); [apply numeq_with_blk|apply numeq_refl|].
    (* the cut refers to the blocked copy of X: same numbers *)
    assert (Hw : with_cut eY (with_blk eX) = with_cut eY eX).
    { unfold with_cut. rewrite with_blk_hi. unfold cut_now. rewrite with_blk_blocker. reflexivity. }
    rewrite Hw. exact E1. }
  assert (HA : snd eX <> [] -> stepA f eX eY u = [eX'; eY'] -> guard_cut eX' eY' G GY /\ b_rq (fst eX') = b_rq (fst eX)).
  { intros HneX. unfold stepA. destruct (match u with Some u0 => Nat.eqb u0 0 | None => false end).
    - intros E1. apply (UseA eX eY u); try assumption; apply numeq_refl.
    - intros E1. apply (UseA (with_cut eX eY) (with_blk eY) (Some 0%nat)); try assumption;
        [apply numeq_with_cut|apply numeq_with_blk|discriminate]. }
  assert (HT : stepT f eX eY = [eX'; eY'] -> guard_cut eX' eY' G GY /\ b_rq (fst eX') = b_rq (fst eX)).
  { unfold stepT. intros E1.
    (* X is consumed as well; its copy stays strong *)
    set (dX := with_blk (with_cut eX eY)) in *.
    assert (NdX : numeq eX dX) by (eapply numeq_trans; [apply numeq_with_cut|apply numeq_with_blk]).
    pose proof (numeq_Einv _ _ NdX HX) as HdX.
    assert (Hw : with_cut (with_blk eY) (with_cut eX eY) = with_cut (with_blk eY) dX).
    { unfold with_cut at 1 3. unfold dX. rewrite with_blk_hi. unfold cut_now. rewrite with_blk_blocker. reflexivity. }
    rewrite Hw in E1.
    destruct (cut_now_guard dX (with_blk eY) G GY HG (strong_numeq _ _ _ NdX Hst)) as (C1 & C2 & bsz & C3 & C4).
    { rewrite with_blk_size. assumption. }
    destruct (cut_survives_B f (advance_one dX) (advance_one (with_cut (with_blk eY) dX)) None eX' eY' (cut_now (with_blk eY) dX)
                (Einv_advance _ HdX) (Einv_advance _ (Einv_with_cut _ _ (Einv_with_blk _ HY)))) as [S1 S2];
      [|exact E1|rewrite advance_cuts; exact C1|].
    { pose proof (adv_len dX) as Hl1. pose proof (adv_len (with_cut (with_blk eY) dX)) as Hl2.
      rewrite with_cut_rem, with_blk_rem in Hl2. destruct NdX as (_ & _ & _ & _ & N5). rewrite N5 in *.
      rewrite EY in *. cbn [length] in *. lia. }
    rewrite advance_one_rq in S2.
    assert (Hrq : b_rq (fst eX') = b_rq (fst eX)) by (rewrite S2; apply NdX).
    split; [|exact Hrq]. exists (cut_now (with_blk eY) dX), bsz. split; [exact S1|]. split; [exact C2|]. split; [|exact C4].
    rewrite C3, S2. reflexivity. }
  destruct (snd eX) as [|[pa sa] ta] eqn:EX.
  - apply HB. exact E.
  - destruct (pb <? pa); [apply HA; [discriminate|exact E]|]. destruct (pa <? pb); [apply HB; exact E|apply HT; exact E].
Qed.

Lemma numeq_len : forall e e', numeq e e' -> length (snd e') = length (snd e).
Proof. intros e e' (_ & _ & _ & _ & A5). rewrite A5. reflexivity. Qed.

Lemma Tge_size : forall e p, b_size (fst e) <= Tge e p.
Proof. intros. unfold Tge. lia. Qed.

Lemma Tge_pos : forall e p, Einv e -> In p (prios e) -> 0 < Tge e p.
Proof. intros e p He Hin. unfold Tge. pose proof (sum_ge_pos p (snd e) (ei_pos _ He) Hin). lia. Qed.

Lemma prios_nonempty : forall e p, In p (prios e) -> snd e <> [].
Proof. intros e p H E. unfold prios in H. rewrite E in H. contradiction. Qed.

Lemma phase1_B : forall f eX eY u p q eX' eY', Einv eX -> Einv eY -> (length (snd eX) + length (snd eY) < f)%nat ->
  In p (prios eX) -> In q (prios eY) -> q < p -> lr_gt eY q = false ->
  merge_loop f [eX; eY] u = [eX'; eY'] -> guard_cut eX' eY' (Tge eX p) (Tge eY p) /\ b_rq (fst eX') = b_rq (fst eX).
Proof.
  induction f as [|f IH]; intros eX eY u p q eX' eY' HX HY Hlen Hp Hq Hqp Hlr E; [lia|].
  rewrite merge2_step in E.
  pose proof (Tge_pos eX p HX Hp) as HG.
  unfold head_prio in E.
  destruct (snd eX) as [|[pa sa] ta] eqn:EX; [exfalso; apply (prios_nonempty _ _ Hp EX)|].
  destruct (snd eY) as [|[pb sb] tb] eqn:EY; [exfalso; apply (prios_nonempty _ _ Hq EY)|].
  pose proof (head_ge eX pa sa ta p HX EX Hp) as Hpa.
  pose proof (head_ge eY pb sb tb q HY EY Hq) as Hqb.
  (* X's head is consumed (alone, or together with Y's): X ends strong, or the situation persists *)
  assert (ConsX : forall eXd eY1 u1, numeq eX eXd -> u1 <> Some 1%nat ->
            Einv eY1 -> In q (prios eY1) -> lr_gt eY1 q = false -> Tge eY1 p = Tge eY p ->
            (length (snd eY1) <= length (snd eY))%nat ->
            merge_loop f [advance_one eXd; eY1] u1 = [eX'; eY'] ->
            guard_cut eX' eY' (Tge eX p) (Tge eY p) /\ b_rq (fst eX') = b_rq (fst eX)).
  { intros eXd eY1 u1 NX Hu1 HY1 Hq1 Hlr1 HT1 Hl1 E1.
    pose proof (numeq_Einv _ _ NX HX) as HXd.
    assert (Hlen1 : (length (snd (advance_one eXd)) + length (snd eY1) < f)%nat).
    { pose proof (adv_len eXd) as Hl. rewrite (numeq_len _ _ NX) in Hl. rewrite ?EX, ?EY in *. cbn [length] in *. lia. }
    assert (Hrq : b_rq (fst (advance_one eXd)) = b_rq (fst eX)) by (rewrite advance_one_rq; apply NX).
    destruct (X_adv eX eXd pa sa ta p HX NX EX Hp) as [Hst|[Hp1 HT]].
    - destruct (phase2_B f (advance_one eXd) eY1 u1 (Tge eX p) (Tge eY p) eX' eY' (Einv_advance _ HXd) HY1 Hlen1 Hu1
                  (prios_nonempty _ _ Hq1) HG Hst) as [I1 I2]; [rewrite <- HT1; apply Tge_size|exact E1|].
      split; [exact I1|congruence].
    - destruct (IH (advance_one eXd) eY1 u1 p q eX' eY' (Einv_advance _ HXd) HY1 Hlen1 Hp1 Hq1 Hqp Hlr1 E1) as [I1 I2].
      rewrite HT, HT1 in I1. split; [exact I1|congruence]. }
  assert (HA : pb < pa -> stepA f eX eY u = [eX'; eY'] -> guard_cut eX' eY' (Tge eX p) (Tge eY p) /\ b_rq (fst eX') = b_rq (fst eX)).
  { intros _. unfold stepA. destruct (match u with Some u0 => Nat.eqb u0 0 | None => false end) eqn:Eu.
    - intros E1. apply (ConsX eX eY u); try first [assumption|reflexivity|apply numeq_refl|apply Nat.le_refl].
      destruct u as [[|n]|]; try discriminate.
    - intros E1. pose proof (numeq_with_blk eY) as NY.
      apply (ConsX (with_cut eX eY) (with_blk eY) (Some 0%nat)); try assumption.
      + apply numeq_with_cut. + discriminate. + apply Einv_with_blk; assumption.
      + rewrite (numeq_prios _ _ NY). assumption. + rewrite (numeq_lr_gt _ _ q NY). assumption.
      + apply numeq_Tge. assumption. + rewrite (numeq_len _ _ NY). lia. }
  (* Y's head (priority >= p) is consumed *)
  assert (HB : pa < pb -> stepB f eX eY u = [eX'; eY'] -> guard_cut eX' eY' (Tge eX p) (Tge eY p) /\ b_rq (fst eX') = b_rq (fst eX)).
  { intros Hab. unfold stepB. destruct (match u with Some u0 => Nat.eqb u0 1 | None => false end).
    - intros E1. destruct (Y_adv eY eY pb sb tb p q HY (numeq_refl _) EY Hq Hqp ltac:(lia) Hlr) as (Y1 & Y2 & Y3).
      assert (Hl2 : (length (snd eX) + length (snd (advance_one eY)) < f)%nat).
      { pose proof (adv_len eY) as Hl. rewrite ?EX, ?EY in *. cbn [length] in *. lia. }
      destruct (IH eX (advance_one eY) u p q eX' eY' HX (Einv_advance _ HY) Hl2 Hp Y1 Hqp Y3 E1) as [I1 I2].
      rewrite Y2 in I1. split; assumption.
    - intros E1. pose proof (numeq_with_blk eX) as NX. pose proof (numeq_with_cut eY eX) as NY.
      destruct (Y_adv eY (with_cut eY eX) pb sb tb p q HY NY EY Hq Hqp ltac:(lia) Hlr) as (Y1 & Y2 & Y3).
      assert (Hl2 : (length (snd (with_blk eX)) + length (snd (advance_one (with_cut eY eX))) < f)%nat).
      { pose proof (adv_len (with_cut eY eX)) as Hl. rewrite (numeq_len _ _ NY) in Hl. rewrite (numeq_len _ _ NX).
        rewrite ?EX, ?EY in *. cbn [length] in *. lia. }
      assert (Hp2 : In p (prios (with_blk eX))) by (rewrite (numeq_prios _ _ NX); exact Hp).
      destruct (IH (with_blk eX) (advance_one (with_cut eY eX)) (Some 1%nat) p q eX' eY'
                  (Einv_with_blk _ HX) (Einv_advance _ (Einv_with_cut _ _ HY)) Hl2 Hp2 Y1 Hqp Y3 E1) as [I1 I2].
      rewrite Y2, (numeq_Tge _ _ p NX) in I1. split; [exact I1|]. rewrite I2. apply NX. }
  assert (HT : pa = pb -> stepT f eX eY = [eX'; eY'] -> guard_cut eX' eY' (Tge eX p) (Tge eY p) /\ b_rq (fst eX') = b_rq (fst eX)).
  { intros Hab. unfold stepT. intros E1.
    set (dX := with_blk (with_cut eX eY)) in *. set (dY := with_cut (with_blk eY) (with_cut eX eY)) in *.
    assert (NX : numeq eX dX) by (eapply numeq_trans; [apply numeq_with_cut|apply numeq_with_blk]).
    assert (NY : numeq eY dY) by (eapply numeq_trans; [apply numeq_with_blk|apply numeq_with_cut]).
    destruct (Y_adv eY dY pb sb tb p q HY NY EY Hq Hqp ltac:(lia) Hlr) as (Y1 & Y2 & Y3).
    apply (ConsX dX (advance_one dY) None); try assumption.
    - discriminate.
    - apply Einv_advance. apply (numeq_Einv _ _ NY HY).
    - pose proof (adv_len dY) as Hl. rewrite (numeq_len _ _ NY) in Hl. rewrite EY in *. cbn [length] in *. lia. }
  unfold prios in Hp, Hq. rewrite EX in Hp. rewrite EY in Hq.
  destruct (N.ltb_spec pb pa) as [H1|H1]; [apply HA; [exact H1|exact E]|].
  destruct (N.ltb_spec pa pb) as [H2|H2]; [apply HB; [exact H2|exact E]|apply HT; [lia|exact E]].
Qed.

(** Y in first position: by [merge2_swap] *)
Lemma phase1_A : forall f eX eY u p q eX' eY', Einv eX -> Einv eY -> (length (snd eY) + length (snd eX) < f)%nat ->
  In p (prios eX) -> In q (prios eY) -> q < p -> lr_gt eY q = false ->
  merge_loop f [eY; eX] u = [eY'; eX'] -> guard_cut eX' eY' (Tge eX p) (Tge eY p) /\ b_rq (fst eX') = b_rq (fst eX).
Proof.
  intros f eX eY u p q eX' eY' HX HY Hlen Hp Hq Hqp Hlr E.
  apply (phase1_B f eX eY (swapu u) p q eX' eY'); try assumption; [lia|]. rewrite merge2_swap, E. reflexivity.
Qed.
