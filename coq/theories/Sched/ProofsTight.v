(** C15: what the tight K1 row (cut budget shared by all workers where the blocker may run) guarantees. *)
From HQ Require Import Base.Prelude Gen.Consts Sched.Model Sched.ProofsRows.
Require Import ZifyBool ZifyN ZifyNat.
Open Scope N_scope.

Definition capable_total (I : inst) (bs : list batch) (s : sol) (l h : N) (ws : list worker) : N :=
  fold_right (fun w acc => (if capable I w h then placed I bs s w l else 0) + acc) 0 ws.
Definition gap_total (I : inst) (l h : N) (ws : list worker) : N :=
  fold_right (fun w acc => (if capable I w h then gap_or0 I w h l else 0) + acc) 0 ws.
Definition excess (I : inst) (bs : list batch) (s : sol) (l h : N) (ws : list worker) : N :=
  fold_right (fun w acc => (if capable I w h then placed I bs s w l - gap_or0 I w h l else 0) + acc) 0 ws.

Lemma excess_bounds : forall I bs s l h ws,
  (forall w, In w ws -> capable I w h = true -> placed I bs s w l <= excess I bs s l h ws + gap_or0 I w h l)
  /\ capable_total I bs s l h ws <= excess I bs s l h ws + gap_total I l h ws.
Proof.
  intros I bs s l h. induction ws as [|w0 t [IH1 IH2]]; simpl.
  - split; [intros w []|lia].
  - split.
    + intros w [->|Hin] Hc.
      * rewrite Hc. lia.
      * specialize (IH1 w Hin Hc). destruct (capable I w0 h); lia.
    + destruct (capable I w0 h); lia.
Qed.

(** If the tight row K1 holds for (low class l, cut, blocker h) - the cut budget is shared by all workers
    where h may run - then every real per-worker cut row holds, and the low class' total on the workers
    where h may run stays within the budget [cut + total gap]. *)
Theorem tight_k1_guarantees : forall I bs s l cut h,
  k1_violated I bs s l cut h = false ->
  (forall w, In w (i_workers I) -> capable I w h = true -> placed I bs s w l <= cut + gap_or0 I w h l)
  /\ capable_total I bs s l h (i_workers I) <= cut + gap_total I l h (i_workers I).
Proof.
  intros I bs s l cut h H. unfold k1_violated, k1_excess in H. fold (excess I bs s l h (i_workers I)) in H.
  destruct (excess_bounds I bs s l h (i_workers I)) as [H1 H2]. split.
  - intros w Hw Hc. specialize (H1 w Hw Hc). lia.
  - lia.
Qed.

(** what the gap guarantees: tasks placed into the gap never take room the blocker class could use *)

Lemma amount_cons : forall e rq r, amount (e :: rq) r = (if fst e =? r then snd e else 0) + amount rq r.
Proof. reflexivity. Qed.

Lemma rv_remove_multiple_get : forall rq v n v', rv_remove_multiple v rq n = Ok v' ->
  forall r, rv_get v' r = rv_get v r - amount rq r * n.
Proof.
  induction rq as [|[r0 a] t IH]; intros v n v' H r; simpl in H.
  - injection H as <-. symmetry. apply N.sub_0_r.
  - destruct (Nat.ltb_spec (N.to_nat r0) (length v)) as [Hin|]; [|discriminate].
    rewrite (IH _ _ _ H r), rv_get_set, amount_cons by assumption. simpl.
    destruct (N.eqb_spec r r0) as [->|Hne].
    + rewrite N.eqb_refl. lia.
    + destruct (N.eqb_spec r0 r); [congruence|]. lia.
Qed.

(** instances whose classes have no [All] entry (the gap of a blocker with an [All] entry is 0 by definition) *)
Definition no_all (I : inst) : Prop := forall rq, rc_all (class_of I rq) = [].

Lemma rv_remove_cls_noall : forall v c n, rc_all c = [] -> rv_remove_cls v c n = rv_remove_multiple v (rc_entries c) n.
Proof. intros v c n H. unfold rv_remove_cls. rewrite H. reflexivity. Qed.

Lemma tmc_cls_noall : forall v c, rc_all c = [] -> task_max_count_cls v c = task_max_count v (rc_entries c).
Proof. intros v c H. unfold task_max_count_cls, task_max_count. rewrite H. simpl. rewrite app_nil_r. reflexivity. Qed.

Definition demand_except (I : inst) (assigned : list N) (h r : N) : N :=
  fold_right (fun rq acc => (if rq =? h then 0 else amount (req_of I rq) r) + acc) 0 assigned.

Lemma demand_except_cons : forall I rq t h r,
  demand_except I (rq :: t) h r = (if rq =? h then 0 else amount (req_of I rq) r) + demand_except I t h r.
Proof. reflexivity. Qed.

Lemma remove_assigned_get : forall I assigned free h f', no_all I -> remove_assigned I free assigned h = Ok f' ->
  forall r, rv_get f' r = rv_get free r - demand_except I assigned h r.
Proof.
  induction assigned as [|rq t IH]; intros free h f' Hna H r; simpl in H.
  - injection H as <-. symmetry. apply N.sub_0_r.
  - rewrite demand_except_cons. destruct (rq =? h).
    + rewrite (IH _ _ _ Hna H r). lia.
    + rewrite (rv_remove_cls_noall _ _ _ (Hna rq)) in H. fold (req_of I rq) in H.
      destruct (rv_remove_multiple free (req_of I rq) 1) as [f1| |] eqn:E; simpl in H; try discriminate.
      rewrite (IH _ _ _ Hna H r), (rv_remove_multiple_get _ _ _ _ E r). lia.
Qed.

Definition count_class (assigned : list N) (h : N) : N := nlen (filter (fun rq => rq =? h) assigned).

Lemma demand_cons : forall I rq t r, demand I (rq :: t) r = amount (req_of I rq) r + demand I t r.
Proof. reflexivity. Qed.
Lemma count_class_cons : forall rq t h, count_class (rq :: t) h = (if rq =? h then 1 else 0) + count_class t h.
Proof. intros. unfold count_class. simpl. destruct (rq =? h); unfold nlen; simpl; lia. Qed.

Lemma demand_split : forall I assigned h r,
  demand I assigned r = count_class assigned h * amount (req_of I h) r + demand_except I assigned h r.
Proof.
  intros I assigned h r. induction assigned as [|rq t IH]; [reflexivity|].
  rewrite demand_cons, demand_except_cons, count_class_cons, IH.
  destruct (N.eqb_spec rq h) as [->|Hne]; lia.
Qed.

Definition request_nodup (rq : request) : Prop := NoDup (map fst rq).

Lemma amount_zero_or_entry : forall rq r, amount rq r = 0 \/ exists e, In e rq /\ fst e = r /\ 0 < snd e.
Proof.
  induction rq as [|x t IH]; intros r; [left; reflexivity|].
  rewrite amount_cons. destruct (IH r) as [->|(e & He & Hr & Hp)]; [|right; exists e; simpl; auto].
  destruct (N.eqb_spec (fst x) r) as [E|_]; [|left; reflexivity].
  destruct (N.eq_dec (snd x) 0) as [->|Hnz]; [left; reflexivity|].
  right. exists x. simpl. split; [left; reflexivity|split; [assumption|lia]].
Qed.

Lemma amount_entry : forall rq e, request_nodup rq -> In e rq -> amount rq (fst e) = snd e.
Proof.
  induction rq as [|x t IH]; intros e Hnd Hin; [contradiction|].
  unfold request_nodup in Hnd. simpl in Hnd. inversion Hnd as [|? ? Hx Hnd']; subst.
  rewrite amount_cons. destruct Hin as [->|Hin].
  - rewrite N.eqb_refl. destruct (amount_zero_or_entry t (fst e)) as [->|(e' & He' & E & _)]; [apply N.add_0_r|].
    destruct Hx. rewrite <- E. apply in_map. assumption.
  - destruct (N.eqb_spec (fst x) (fst e)) as [E|_].
    + destruct Hx. rewrite E. apply in_map. assumption.
    + apply (IH e Hnd' Hin).
Qed.

Lemma list_min_le : forall l m x, list_min l = Some m -> In x l -> m <= x.
Proof.
  induction l as [|y t IH]; intros m x H Hin; [contradiction|]. simpl in H.
  destruct (list_min t) as [m'|] eqn:E; injection H as <-.
  - destruct Hin as [->|Hin]; [lia|]. specialize (IH m' x eq_refl Hin). lia.
  - destruct Hin as [->|Hin]; [lia|]. destruct t; [contradiction|simpl in E; destruct (list_min t); discriminate].
Qed.

Lemma tmc_entry : forall v rq e k, In e rq -> 0 < snd e -> k <= task_max_count v rq -> k * snd e <= rv_get v (fst e).
Proof.
  intros v rq e k Hin Hpos Hk. unfold task_max_count in Hk.
  destruct (list_min _) as [m|] eqn:E.
  - assert (Hm : m <= N.min (rv_get v (fst e) / snd e) SCHED_MAX_TASK_PER_WORKER).
    { eapply list_min_le; [exact E|]. apply in_map_iff. exists e. auto. }
    apply N.le_trans with (rv_get v (fst e) / snd e * snd e).
    + apply N.mul_le_mono_r. lia.
    + rewrite N.mul_comm. apply N.mul_div_le. lia.
  - apply N.le_0_r in Hk. subst. apply N.le_0_l.
Qed.

Lemma tmc_amount : forall v rq k r, request_nodup rq -> k <= task_max_count v rq -> k * amount rq r <= rv_get v r.
Proof.
  intros v rq k r Hnd Hk. destruct (amount_zero_or_entry rq r) as [->|(e & He & <- & Hp)].
  - rewrite N.mul_0_r. apply N.le_0_l.
  - rewrite (amount_entry rq e Hnd He). exact (tmc_entry v rq e k He Hp Hk).
Qed.

Lemma list_min_ge : forall l k, l <> [] -> (forall x, In x l -> k <= x) -> exists m, list_min l = Some m /\ k <= m.
Proof.
  induction l as [|y t IH]; intros k Hn Ha; [congruence|]. simpl. destruct t as [|z t'].
  - simpl. exists y. split; [reflexivity|apply Ha; left; reflexivity].
  - destruct (IH k) as (m & Hm & Hk); [discriminate|intros x Hx; apply Ha; right; assumption|].
    rewrite Hm. exists (N.min y m). split; [reflexivity|]. specialize (Ha y (or_introl eq_refl)). lia.
Qed.

Lemma tmc_ge : forall v rq k, rq <> [] -> k < SCHED_MAX_TASK_PER_WORKER ->
  (forall e, In e rq -> 0 < snd e /\ k * snd e <= rv_get v (fst e)) -> k <= task_max_count v rq.
Proof.
  intros v rq k Hne Hcap H. unfold task_max_count.
  destruct (list_min_ge (map (fun e => N.min (rv_get v (fst e) / snd e) SCHED_MAX_TASK_PER_WORKER) rq) k) as (m & Hm & Hk).
  - destruct rq; [congruence|discriminate].
  - intros x Hx. apply in_map_iff in Hx. destruct Hx as (e & <- & He). destruct (H e He) as [Hp Hke].
    assert (k <= rv_get v (fst e) / snd e) by (apply N.div_le_lower_bound; lia). lia.
  - rewrite Hm. assumption.
Qed.

(** the accounting of one resource: [free] is the [total] less [nh] tasks asking [a] each and [dex] more *)
Lemma fits_total : forall k nh a dex free total,
  k * a <= free -> free + (nh * a + dex) = total -> (k + nh) * a <= total.
Proof. intros. rewrite N.mul_add_distr_r. lia. Qed.

Lemma room_left : forall k nh m a dex free total u,
  k + nh <= m -> k * a <= free -> free + (nh * a + dex) = total -> u <= total - a * m - dex -> k * a + u <= free.
Proof.
  intros k nh m a dex free total u Hm Hk Ht Hu. pose proof (N.mul_le_mono_l _ _ a Hm) as H.
  rewrite N.mul_add_distr_l, (N.mul_comm a k), (N.mul_comm a nh) in H. lia.
Qed.

Theorem gap_leaves_room : forall I w h G,
  no_all I ->
  gap_resources I w h = Ok G ->
  request_wf (req_of I h) -> request_nodup (req_of I h) ->
  (exists e, In e (req_of I h) /\ rv_get (w_res w) (fst e) / snd e < SCHED_MAX_TASK_PER_WORKER) ->
  (forall r, rv_get (w_free w) r + demand I (w_assigned w) r = rv_get (w_res w) r) ->
  forall (U : N -> N), (forall r, U r <= rv_get G r) ->
  forall k, k <= task_max_count (w_free w) (req_of I h) ->
  forall r, k * amount (req_of I h) r + U r <= rv_get (w_free w) r.
Proof.
  intros I w h G Hna HG Hwf Hnd (e0 & He0 & Hsmall) Hacc U HU k Hk r.
  unfold gap_resources in HG. cbv zeta in HG.
  rewrite (rv_remove_cls_noall _ _ _ (Hna h)), (tmc_cls_noall _ _ (Hna h)) in HG. fold (req_of I h) in HG.
  destruct (rv_remove_multiple (w_res w) (req_of I h) (task_max_count (w_res w) (req_of I h))) as [f1| |] eqn:E1;
    simpl in HG; try discriminate.
  specialize (HU r). rewrite (remove_assigned_get _ _ _ _ _ Hna HG r), (rv_remove_multiple_get _ _ _ _ E1 r) in HU.
  pose proof (fun r => tmc_amount (w_free w) (req_of I h) k r Hnd Hk) as Hfree.
  assert (Hsplit : forall r, rv_get (w_free w) r
            + (count_class (w_assigned w) h * amount (req_of I h) r + demand_except I (w_assigned w) h r)
            = rv_get (w_res w) r).
  { intros r'. rewrite <- demand_split. apply Hacc. }
  unfold request_wf in Hwf. rewrite Forall_forall in Hwf.
  (* [k] more tasks of [h] fit the worker's total next to those assigned: all are within the maximal packing *)
  assert (Hfit : forall e, In e (req_of I h) ->
            (k + count_class (w_assigned w) h) * snd e <= rv_get (w_res w) (fst e)).
  { intros e He. rewrite <- (amount_entry _ e Hnd He). exact (fits_total _ _ _ _ _ _ (Hfree (fst e)) (Hsplit (fst e))). }
  assert (Hm : k + count_class (w_assigned w) h <= task_max_count (w_res w) (req_of I h)).
  { apply tmc_ge.
    - intros E. rewrite E in He0. contradiction.
    - apply N.le_lt_trans with (2 := Hsmall). apply N.div_le_lower_bound; [apply N.neq_0_lt_0, Hwf, He0|].
      rewrite N.mul_comm. exact (Hfit e0 He0).
    - intros e He. split; [exact (Hwf e He)|exact (Hfit e He)]. }
  exact (room_left _ _ _ _ _ _ _ _ Hm (Hfree r) (Hsplit r) HU).
Qed.
