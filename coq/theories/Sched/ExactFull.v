(** C15: the EXACT class with INTERLEAVED priority levels.  One worker, one resource kind, two request
    classes with arbitrary ready queues (any number of tasks per level, the levels of the two classes
    interleaved in any way, at most 32 levels per class so that no cut is pruned): every optimal solution
    of the exact row system, dispatched by any assignment [mapping_ok] accepts, is free of priority
    inversions ([exact_class_full_no_inversion]).

    The proof: an inversion (task [t] of class Y runs, task [u] of class X with a higher priority [p]
    waits and would fit without the lower tasks) is between two classes ([same_class_order_y]); the merge
    loop has given Y a cut of at most "Y's tasks of priority >= p" guarded by X ([bf_guard]), so Y places
    at most that many tasks plus the gap, and the gap holds less than one X task; every cut of X is
    either not in force once Y holds its tasks of priority >= p or already admits one more X task
    ([bf_xcut]); hence "one more X task, Y cut back to its tasks of priority >= p" is feasible
    ([exchange]) and uses strictly more of the resource - the solution was not optimal.

    The wider statement without the bound on the number of levels is false: [ExactFullRefuted].
    With one level in one of the classes, above all levels of the other, it holds without that bound
    ([exact_class_no_inversion]). *)
From HQ Require Import Base.Prelude Gen.Consts Sched.Model Sched.ProofsOrder Sched.ProofsRows Sched.ProofsCuts
  Sched.ProofsExact Sched.ExactFullMerge Sched.ExactFullInst Sched.ExactFullBatches Sched.ExactFullZeroU Sched.ExactFullQueue Sched.ExactFullRows Sched.Optimal.
Require Import ZifyBool ZifyN ZifyNat.
From Coq Require Import Sorting.Sorted.
Open Scope N_scope.
Local Arguments N.add : simpl never. Local Arguments N.sub : simpl never. Local Arguments N.mul : simpl never.
Local Arguments N.eqb : simpl never. Local Arguments N.ltb : simpl never. Local Arguments N.leb : simpl never.
Local Arguments N.of_nat : simpl never. Local Arguments N.to_nat : simpl never. Local Arguments N.div : simpl never.
Local Arguments N.min : simpl never. Local Arguments N.max : simpl never.

Lemma yinst_wf : forall R F assigned a0 a1 q0 q1, 0 < a0 -> 0 < a1 -> inst_wf (yinst R F assigned a0 a1 q0 q1).
Proof.
  intros. split.
  - cbn. repeat constructor. intros [].
  - intros c Hc. cbn in Hc. destruct Hc as [<-|[<-|[]]]; split; repeat constructor; cbn; lia.
  - intros c Hc. cbn in Hc. destruct Hc as [<-|[<-|[]]]; constructor.
Qed.

(** What an inversion consists of on the one worker: a dispatched task [t] on it, a waiting task [u] of
    higher priority that would fit without the lower tasks; the class of [t] is placeable there (C05:
    an accepted dispatch overbooks nothing) and has a batch. *)
Lemma y_inversion_witness : forall R F assigned a0 a1 q0 q1 bs m s d,
  let I := yinst R F assigned a0 a1 q0 q1 in let W := xworker R F assigned in
  0 < a0 -> 0 < a1 -> create_task_batches I = Ok bs -> milp_of I bs = Ok m -> feasible m s = true ->
  mapping_ok I bs s d = true -> inversion I d = true ->
  exists pr t u, In pr d /\ snd pr = 1 /\ find_task (ready_tasks I) (fst pr) = Some t /\ In u (ready_tasks I)
    /\ dispatched d (t_id u) = false /\ t_prio t < t_prio u /\ fits_without_lower I d W u = true
    /\ placeable I W (t_rq t) = true /\ exists b, In b bs /\ b_rq b = t_rq t.
Proof.
  intros R F assigned a0 a1 q0 q1 bs m s d I W Ha0 Ha1 Hbs Hm Hf Hmap Einv.
  destruct (inversion_witness I d Einv) as (pr & t & w & u & Hpr & Et & Ew & Hu & Hund & Hprio & Hfits).
  unfold find_worker in Ew. apply find_some in Ew. destruct Ew as [Hin Eid]. destruct Hin as [<-|[]].
  apply N.eqb_eq in Eid. change (w_id W) with 1 in Eid.
  exists pr, t, u. split; [exact Hpr|]. split; [symmetry; exact Eid|]. split; [exact Et|]. split; [exact Hu|].
  split; [exact Hund|]. split; [exact Hprio|]. split; [exact Hfits|]. split.
  - destruct (C05_feasible_no_overbook_thm I bs m s d (yinst_wf R F assigned a0 a1 q0 q1 Ha0 Ha1) Hbs Hm Hf Hmap W (or_introl eq_refl))
      as (_ & _ & Hpl).
    apply Hpl. unfold rqs_on. apply in_concat. exists [t_rq t]. split; [|left; reflexivity].
    apply in_map_iff. exists pr. split; [|assumption]. change (w_id W) with 1. rewrite <- Eid, N.eqb_refl, Et. reflexivity.
  - unfold mapping_ok in Hmap. apply andb_true_iff in Hmap. destruct Hmap as [_ Hcls].
    rewrite forallb_forall in Hcls. specialize (Hcls pr Hpr). rewrite Et in Hcls.
    apply existsb_exists in Hcls. destruct Hcls as (b & Hb & Hbrq). apply N.eqb_eq in Hbrq. exists b. auto.
Qed.

Lemma flat_nonempty : forall q x, In x (flat_tasks q) -> q <> [].
Proof. intros q x H E. rewrite E in H. exact H. Qed.

Lemma Tge_ent0 : forall rq limit q p, Tge (ent0 rq limit q) p = sum_ge p (levels q).
Proof. intros. unfold Tge, ent0. cbn [fst snd b0 b_size]. lia. Qed.
Lemma Tgt_ent0 : forall rq limit q p, Tgt (ent0 rq limit q) p = sum_gt p (levels q).
Proof. intros. unfold Tgt, ent0. cbn [fst snd b0 b_size]. lia. Qed.

Theorem exact_class_full_no_inversion : forall R F assigned a0 a1 q0 q1 bs m s d,
  0 < a0 -> 0 < a1 -> F <= R ->
  R / a0 <= SCHED_MAX_TASK_PER_WORKER -> R / a1 <= SCHED_MAX_TASK_PER_WORKER ->
  ready_wf q0 -> NoDup (flat_ids q0) -> ready_wf q1 -> NoDup (flat_ids q1) ->
  (length q0 <= 32)%nat -> (length q1 <= 32)%nat ->
  create_task_batches (yinst R F assigned a0 a1 q0 q1) = Ok bs ->
  milp_of (yinst R F assigned a0 a1 q0 q1) bs = Ok m -> feasible m s = true ->
  (forall s', feasible m s' = true -> (objective m s' <= objective m s)%Z) ->
  mapping_ok (yinst R F assigned a0 a1 q0 q1) bs s d = true ->
  inversion (yinst R F assigned a0 a1 q0 q1) d = false.
Proof.
  intros R F assigned a0 a1 q0 q1 bs m s d Ha0 Ha1 HFR Hc0 Hc1 Hw0 Hnd0 Hw1 Hnd1 Hl0 Hl1 Hbs Hm Hf Hopt Hmap.
  set (I := yinst R F assigned a0 a1 q0 q1) in *. set (W := xworker R F assigned).
  destruct (inversion I d) eqn:Einv; [exfalso|reflexivity].
  destruct (y_inversion_witness R F assigned a0 a1 q0 q1 bs m s d Ha0 Ha1 Hbs Hm Hf Hmap Einv)
    as (pr & t & u & Hpr & Hsp & Et & Hu_ready & Hundisp & Hprio & Hfits & HplY & bY0 & HbY0 & HrqY0).
  fold I in Et, Hu_ready, Hfits, HplY. fold W in Hfits, HplY.
  pose proof Et as Eft. apply find_task_in in Et. destruct Et as [Ht_ready Htid].
  destruct (ready_cases R F assigned a0 a1 q0 q1 t Ht_ready) as [HtZ Htfl]. fold I in Ht_ready.
  destruct (ready_cases R F assigned a0 a1 q0 q1 u Hu_ready) as [HuZ Hufl].
  set (X := t_rq u) in *. set (Y := t_rq t) in *.
  assert (HxY : has_x I bs W Y = true) by (rewrite <- HrqY0, has_x_placeable by assumption; rewrite HrqY0; exact HplY).
  pose proof (mapping_MZ R F assigned a0 a1 q0 q1 bs s d bY0 Y (qz_wf q0 q1 Hw0 Hw1 Y) Hmap HbY0 HrqY0 HtZ HxY) as HMY.
  destruct (N.eq_dec X Y) as [HXeqY|HXneY].
  { apply (same_class_order_y R F assigned a0 a1 q0 q1 s d Y u t pr HMY (qz_wf q0 q1 Hw0 Hw1 Y) (qz_nodup q0 q1 Hnd0 Hnd1 Y) Hu_ready Hundisp Hpr Eft Hprio HXeqY eq_refl). }
  assert (HXY : (X = 0 /\ Y = 1) \/ (X = 1 /\ Y = 0)) by (destruct HtZ as [E1|E1]; destruct HuZ as [E2|E2]; rewrite ?E1, ?E2 in *; auto; congruence).
  assert (HaX : az a0 a1 X <= F).
  { destruct (fits_unfold R F assigned a0 a1 q0 q1 d u Hfits) as (v & Hsub & Hcap).
    pose proof (sub_all_le _ _ _ _ Hsub 0) as Hle. change (rv_get [F] 0) with F in Hle. fold X in Hcap. unfold az.
    destruct HXY as [[E1 _]|[E1 _]]; rewrite E1 in *.
    - change (req_of (yinst R F assigned a0 a1 q0 q1) 0) with [(0, a0)] in Hcap.
      cbn [capable_res forallb fst snd] in Hcap. change (0 =? 0) with true. clear - Hle Hcap. lia.
    - change (req_of (yinst R F assigned a0 a1 q0 q1) 1) with [(0, a1)] in Hcap.
      cbn [capable_res forallb fst snd] in Hcap. change (1 =? 0) with false. clear - Hle Hcap. lia. }
  assert (HaY : az a0 a1 Y <= F).
  { unfold az. destruct HXY as [[_ E2]|[_ E2]]; rewrite E2 in *.
    - change (placeable I W 1) with (negb false && true && ((a1 <=? F) && true)) in HplY. change (1 =? 0) with false. clear - HplY. lia.
    - change (placeable I W 0) with (negb false && true && ((a0 <=? F) && true)) in HplY. change (0 =? 0) with true. clear - HplY. lia. }
  assert (H0F : a0 <= F) by (unfold az in HaX, HaY; destruct HXY as [[E1 E2]|[E1 E2]]; rewrite E1 in HaX; rewrite E2 in HaY; assumption).
  assert (H1F : a1 <= F) by (unfold az in HaX, HaY; destruct HXY as [[E1 E2]|[E1 E2]]; rewrite E1 in HaX; rewrite E2 in HaY; assumption).
  assert (Hn0 : q0 <> []).
  { destruct HXY as [[E1 E2]|[E1 E2]]; [rewrite E1 in Hufl; exact (flat_nonempty _ _ Hufl)|rewrite E2 in Htfl; exact (flat_nonempty _ _ Htfl)]. }
  assert (Hn1 : q1 <> []).
  { destruct HXY as [[E1 E2]|[E1 E2]]; [rewrite E2 in Htfl; exact (flat_nonempty _ _ Htfl)|rewrite E1 in Hufl; exact (flat_nonempty _ _ Hufl)]. }
  destruct (ybatches_BF R F assigned a0 a1 q0 q1 Ha0 Ha1 H0F H1F HFR Hc0 Hc1 Hw0 Hw1 Hn0 Hn1 Hl0 Hl1) as (bA & bB & Ecr & BF01 & BF10).
  fold I in Ecr. rewrite Ecr in Hbs. injection Hbs as Hbs. subst bs.
  pose proof (bf_rqX _ _ _ _ _ _ BF01) as HrqA. pose proof (bf_rqY _ _ _ _ _ _ BF01) as HrqB.
  set (eZ := fun Z : N => if Z =? 0 then eA0 F a0 q0 else eB0 F a1 q1).
  assert (HBF : BF (eZ X) (eZ Y) X Y (bz bA bB X) (bz bA bB Y)).
  { destruct HXY as [[E1 E2]|[E1 E2]]; rewrite E1, E2; [exact BF01|exact BF10]. }
  assert (HMX : MZ R F assigned a0 a1 q0 q1 s d X).
  { destruct HXY as [[E1 E2]|[E1 E2]]; rewrite E1.
    - apply (mapping_MZ R F assigned a0 a1 q0 q1 [bA; bB] s d bA 0 Hw0 Hmap (or_introl eq_refl) HrqA (or_introl eq_refl)).
      apply y_hasx0; assumption.
    - apply (mapping_MZ R F assigned a0 a1 q0 q1 [bA; bB] s d bB 1 Hw1 Hmap (or_intror (or_introl eq_refl)) HrqB (or_intror eq_refl)).
      apply y_hasx1; assumption. }
  destruct (waiting_facts R F assigned a0 a1 q0 q1 Hw0 Hw1 s d X Y HXY HMX u t pr Hu_ready Hundisp Hprio eq_refl) as [_ N1].
  destruct (running_facts R F assigned a0 a1 q0 q1 Hw0 Hw1 Hnd0 Hnd1 s d X Y HXY HMY u t pr Hundisp Hpr Eft Hprio eq_refl eq_refl) as (_ & N2 & N4).
  pose proof (fits_numbers R F assigned a0 a1 q0 q1 Hw0 Hw1 Hnd0 Hnd1 s d X Y HXY HMX HMY u t pr Hu_ready Hundisp Hpr Eft Hprio eq_refl eq_refl Hfits) as N3.
  pose proof (flat_prio_level _ _ _ Hufl) as N5.
  assert (EX : forall pi, Tge (eZ X) pi = sum_ge pi (levels (qz q0 q1 X)) /\ Tgt (eZ X) pi = sum_gt pi (levels (qz q0 q1 X))
                        /\ prios (eZ X) = map fst (levels (qz q0 q1 X))).
  { intros pi. unfold eZ, qz, eA0, eB0. destruct (X =? 0); rewrite Tge_ent0, Tgt_ent0; auto. }
  assert (EY : forall pi, Tge (eZ Y) pi = sum_ge pi (levels (qz q0 q1 Y)) /\ Tgt (eZ Y) pi = sum_gt pi (levels (qz q0 q1 Y))
                        /\ prios (eZ Y) = map fst (levels (qz q0 q1 Y))).
  { intros pi. unfold eZ, qz, eA0, eB0. destruct (Y =? 0); rewrite Tge_ent0, Tgt_ent0; auto. }
  destruct (exchange R F assigned a0 a1 q0 q1 Ha0 Ha1 H0F H1F HFR Hc0 Hc1 bA bB HrqA HrqB X Y HXY (eZ X) (eZ Y)
              (t_prio u) (t_prio t) HBF) with (m := m) (s := s) as (s' & Hf' & Hlt).
  - unfold eZ. destruct (Y =? 0); reflexivity.
  - unfold eZ, az. destruct (X =? 0); reflexivity.
  - unfold eZ, az. destruct (Y =? 0); reflexivity.
  - exact Hm.
  - exact Hf.
  - rewrite (proj1 (EX _)). exact N1.
  - rewrite (proj1 (proj2 (EY _))). exact N2.
  - rewrite (proj1 (EY _)). exact N3.
  - rewrite (proj2 (proj2 (EX 0))). exact N5.
  - rewrite (proj2 (proj2 (EY 0))). exact N4.
  - exact Hprio.
  - exact (Z.lt_irrefl _ (Z.lt_le_trans _ _ _ Hlt (Hopt s' Hf'))).
Qed.

(** * One level in the high class

    The case [yinst R F assigned ah al [(ph, hs)] lq] with all levels of [lq] below [ph] needs neither the
    bound on the number of levels (the low class gets one cut) nor [R / al <= SCHED_MAX_TASK_PER_WORKER]
    nor distinct ids in [hs]: the batches are computed outright ([xbatches]) and the better point is
    "one more high task, no low task". *)
Section OneLevel.
Variables (R F : N) (assigned : list N) (ah al ph : N) (hs : list N) (lq : list (N * list N)).
Hypothesis HhF : ah <= F.
Hypothesis HlF : al <= F.

Let I := xinst R F assigned ah al ph hs lq.
Let W := xworker R F assigned.
Let bh := xbatch_h F ah hs.
Let bl := xbatch_l F ah al hs lq.
Let bs := [bh; bl].

Lemma x_mapping : forall s d, mapping_ok I bs s d = true ->
  count_on I d 1 0 = sol_x s 1 0 /\ count_on I d 1 1 = sol_x s 1 1
  /\ (forall id, In id hs -> dispatched d id = false -> sol_x s 1 0 < nlen hs).
Proof.
  assert (Hxh : has_x I bs W 0 = true) by (apply y_hasx0; [exact HhF|reflexivity]).
  assert (Hxl : has_x I bs W 1 = true) by (apply y_hasx1; [exact HlF|reflexivity|reflexivity]).
  intros s d H. unfold mapping_ok in H. apply andb_true_iff in H. destruct H as [H _].
  cbn [bs forallb] in H. apply andb_true_iff in H. destruct H as [Hh H]. apply andb_true_iff in H. destruct H as [Hl _].
  change (b_rq bh) with 0 in Hh. change (b_rq bl) with 1 in Hl.
  assert (Pt0 : placed_total I bs s 0 = sol_x s 1 0).
  { unfold placed_total. cbn [I xinst i_workers fold_right]. fold I. fold W. rewrite Hxh. change (w_id W) with 1. lia. }
  assert (Pt1 : placed_total I bs s 1 = sol_x s 1 1).
  { unfold placed_total. cbn [I xinst i_workers fold_right]. fold I. fold W. rewrite Hxl. change (w_id W) with 1. lia. }
  rewrite Pt0 in Hh. rewrite Pt1 in Hl.
  destruct (take_tasks _ (sol_x s 1 0)) as [[taken0 q0]| |] eqn:T0; try discriminate.
  destruct (take_tasks _ (sol_x s 1 1)) as [[taken1 q1]| |] eqn:T1; try discriminate.
  apply andb_true_iff in Hh. destruct Hh as [Heq0 Hc0]. apply andb_true_iff in Hl. destruct Hl as [_ Hc1].
  cbn [I xinst i_workers forallb] in Hc0, Hc1. fold I in Hc0, Hc1. fold W in Hc0, Hc1.
  rewrite Hxh in Hc0. rewrite Hxl in Hc1. change (w_id W) with 1 in Hc0, Hc1.
  apply andb_true_iff in Hc0. destruct Hc0 as [Hc0 _]. apply andb_true_iff in Hc1. destruct Hc1 as [Hc1 _].
  apply N.eqb_eq in Hc0. apply N.eqb_eq in Hc1. split; [assumption|]. split; [assumption|].
  intros id Hid Hnd.
  change (nth (N.to_nat 0) (i_queues I) empty_queue) with {| q_ready := [(ph, hs)]; q_prefill := None |} in T0.
  unfold take_tasks in T0. cbn [q_prefill q_ready] in T0.
  destruct (take_loop [(ph, hs)] (sol_x s 1 0)) as [[l rd]| |] eqn:TL; cbn [bind] in T0; try discriminate.
  injection T0 as E1 E2. cbn [fst] in E1. destruct (take_loop_spec _ _ _ _ TL) as (H1 & _ & H3).
  unfold flat_ids in *. cbn [map concat snd] in *. rewrite app_nil_r in *.
  destruct (N.ltb_spec (sol_x s 1 0) (nlen hs)) as [|Hge]; [assumption|exfalso].
  assert (Hall : taken0 = hs) by (rewrite <- E1, H1; apply firstn_all2; unfold nlen in *; lia).
  rewrite Hall in Heq0. apply list_eqb_eq in Heq0.
  assert (Hin : In id (sortN hs)) by (apply sortN_in; assumption).
  rewrite Heq0 in Hin. apply (proj1 (sortN_in _ _)) in Hin. apply in_map_iff in Hin. destruct Hin as (p & Hp' & Hpin).
  apply filter_In in Hpin. destruct Hpin as [Hpd _].
  unfold dispatched in Hnd. assert (Hex : existsb (fun p0 : N * N => fst p0 =? id) d = true).
  { apply existsb_exists. exists p. split; [assumption|]. apply N.eqb_eq. assumption. }
  congruence.
Qed.

(** a waiting high task fits next to the dispatched high tasks: all of them are kept by the test, having
    its priority *)
Lemma x_fits : forall d (u : dtask), Forall (fun e : N * list N => fst e < ph) lq -> t_prio u = ph -> t_rq u = 0 ->
  fits_without_lower I d W u = true -> (count_on I d 1 0 + 1) * ah <= F.
Proof.
  intros d u Hp Hu Hr H.
  destruct (fits_unfold R F assigned ah al [(ph, hs)] lq d u H) as (v & Hsub & Hcap).
  destruct (sub_all_y R F assigned ah al [(ph, hs)] lq _ _ _ Hsub (keep_classes R F assigned ah al [(ph, hs)] lq _ d)) as [-> Hle].
  rewrite Hr in Hcap. change (req_of (yinst R F assigned ah al [(ph, hs)] lq) 0) with [(0, ah)] in Hcap.
  cbn [capable_res forallb fst snd] in Hcap. change (rv_get [?z] 0) with z in Hcap.
  rewrite !(keep_count R F assigned ah al [(ph, hs)] lq) in Hle, Hcap.
  assert (Hk : nlen (filter (fun pr => (snd pr =? 1) && clsp R F assigned ah al [(ph, hs)] lq 0 (t_prio u) pr) d) = count_on I d 1 0).
  { change (count_on I d 1 0) with (nlen (filter (fun pr => (snd pr =? 1) && cls R F assigned ah al [(ph, hs)] lq 0 pr) d)). f_equal. apply filter_ext_in. intros pr _. f_equal.
    unfold clsp, cls. change (yinst R F assigned ah al [(ph, hs)] lq) with I.
    destruct (find_task (ready_tasks I) (fst pr)) as [t|] eqn:E; [|reflexivity].
    destruct (N.eqb_spec (t_rq t) 0) as [Ht|]; [|reflexivity]. cbn [andb].
    apply find_task_in in E. destruct E as [Hin _].
    destruct (x_ready_cases R F assigned ah al ph hs lq Hp t Hin) as [(_ & Hpr & _)|(Hr1 & _)]; [|congruence].
    rewrite Hu, Hpr. apply N.leb_refl. }
  rewrite Hk in Hle, Hcap. apply andb_true_iff in Hcap. destruct Hcap as [Hcap _]. apply N.leb_le in Hcap.
  clear - Hcap Hle. nia.
Qed.

End OneLevel.

Definition xsol' (s : sol) : sol :=
  fun v => match v with
           | VX w r => if (w =? 1) && (r =? 0) then (s (VX 1 0) + 1)%Z else 0%Z
           | VR _ _ => 0%Z
           | VB _ _ => 1%Z
           end.

Lemma xsol'_nonneg : forall s, (0 <= s (VX 1 0))%Z -> forall v, (0 <= xsol' s v)%Z.
Proof. intros s H [w r|w r|h sz]; simpl; try lia. destruct ((w =? 1) && (r =? 0)); lia. Qed.

Theorem exact_class_no_inversion : forall R F assigned ah al ph hs lq bs m s d,
  0 < ah -> 0 < al -> F <= R -> R / ah <= SCHED_MAX_TASK_PER_WORKER ->
  Forall (fun e : N * list N => fst e < ph) lq -> ready_wf lq -> NoDup (flat_ids lq) ->
  create_task_batches (xinst R F assigned ah al ph hs lq) = Ok bs ->
  milp_of (xinst R F assigned ah al ph hs lq) bs = Ok m -> feasible m s = true ->
  (forall s', feasible m s' = true -> (objective m s' <= objective m s)%Z) ->
  mapping_ok (xinst R F assigned ah al ph hs lq) bs s d = true ->
  inversion (xinst R F assigned ah al ph hs lq) d = false.
Proof.
  intros R F assigned ah al ph hs lq bs m s d Hah Hal HFR Hcap Hp Hlwf Hlnd Hbs Hm Hf Hopt Hmap.
  set (I := xinst R F assigned ah al ph hs lq) in *. set (W := xworker R F assigned).
  destruct (inversion I d) eqn:Einv; [exfalso|reflexivity].
  destruct (y_inversion_witness R F assigned ah al [(ph, hs)] lq bs m s d Hah Hal Hbs Hm Hf Hmap Einv)
    as (p & t & u & Hp_d & Hsp & Et & Hu_ready & Hundisp & Hprio & Hfits & Hplt & bt & Hbt & Hbrq).
  change (yinst R F assigned ah al [(ph, hs)] lq) with I in Et, Hu_ready, Hfits, Hplt. fold W in Hfits, Hplt.
  pose proof Et as Eft. apply find_task_in in Et. destruct Et as [Ht_ready Htid].
  destruct (x_ready_cases R F assigned ah al ph hs lq Hp t Ht_ready) as [(Htr & Htp & _)|(Htr & Htp & Htl)];
  destruct (x_ready_cases R F assigned ah al ph hs lq Hp u Hu_ready) as [(Hur & Hup & Huh)|(Hur & Hup & Hul)].
  { rewrite Htp, Hup in Hprio. exact (N.lt_irrefl _ Hprio). }
  { rewrite Htp in Hprio. exact (N.lt_irrefl _ (N.lt_trans _ _ _ Hprio Hup)). }
  2: { (* both of the low class: the dispatched tasks of a class are its top ones *)
    exfalso. rewrite Htr in Hbrq, Hplt.
    assert (Hx1 : has_x I bs W 1 = true) by (rewrite <- Hbrq, has_x_placeable by assumption; rewrite Hbrq; exact Hplt).
    pose proof (mapping_MZ R F assigned ah al [(ph, hs)] lq bs s d bt 1 Hlwf Hmap Hbt Hbrq (or_intror eq_refl) Hx1) as HM1.
    apply (same_class_order_y R F assigned ah al [(ph, hs)] lq s d 1 u t p HM1 Hlwf ltac:(rewrite <- flat_ids_tasks; exact Hlnd)
             Hu_ready Hundisp Hp_d Eft Hprio Hur Htr). }
  (* t is of class 1 (low), u of class 0 (high) *)
  assert (Hls : lq <> []) by (intros E; rewrite E in Htl; contradiction).
  assert (Hhs : hs <> []) by (intros E; rewrite E in Huh; contradiction).
  assert (Hlne : Forall (fun e : N * list N => snd e <> []) lq).
  { destruct Hlwf as [_ Hf0]. eapply Forall_impl; [|exact Hf0]. intros e [He _]. exact He. }
  (* ah <= F (u fits), al <= F (t was placed: C05) *)
  assert (HhF : ah <= F).
  { unfold fits_without_lower in Hfits. change (inst_on I W) with I in Hfits.
    destruct (sub_all I (w_free W) _) as [v|] eqn:Es; [|discriminate].
    pose proof (sub_all_le _ _ _ _ Es 0) as Hle. rewrite Hur in Hfits.
    change (req_of I 0) with [(0, ah)] in Hfits. change (capable_res v [(0, ah)]) with ((ah <=? rv_get v 0) && true) in Hfits.
    change (rv_get (w_free W) 0) with F in Hle. clear - Hfits Hle. lia. }
  assert (HlF : al <= F).
  { rewrite Htr in Hplt. change (placeable I W 1) with (negb false && true && ((al <=? F) && true)) in Hplt. clear - Hplt. lia. }
  pose proof (xbatches R F assigned ah al ph hs lq Hah Hal HhF HlF HFR Hp Hhs Hls Hlne) as Hxb. fold I in Hxb. rewrite Hxb in Hbs.
  injection Hbs as Hbs. subst bs.
  set (bh := xbatch_h F ah hs) in *. set (bl := xbatch_l F ah al hs lq) in *.
  destruct (x_mapping R F assigned ah al ph hs lq HhF HlF s d Hmap) as (Hc0 & Hc1 & Hlt).
  fold I in Hc0, Hc1.
  assert (Hxh_lt : sol_x s 1 0 < nlen hs) by (apply (Hlt (t_id u) Huh Hundisp)).
  assert (Hfit : (sol_x s 1 0 + 1) * ah <= F).
  { rewrite <- Hc0. apply (x_fits R F assigned ah al ph hs lq d u Hp Hup Hur Hfits). }
  assert (Hxl_pos : 1 <= sol_x s 1 1).
  { rewrite <- Hc1. unfold count_on.
    assert (Hpf : In p (filter (fun p0 : N * N => (snd p0 =? 1) && match find_task (ready_tasks I) (fst p0) with Some t0 => t_rq t0 =? 1 | None => false end) d)).
    { apply filter_In. split; [assumption|]. rewrite Hsp, Eft, Htr. reflexivity. }
    destruct (filter _ d); [contradiction|]. clear. unfold nlen. simpl. lia. }
  destruct (y_milp R F assigned ah al [(ph, hs)] lq Hah Hal HhF HlF bh bl eq_refl eq_refl m Hm) as (its & Eits & Hm1).
  change (yinst R F assigned ah al [(ph, hs)] lq) with I in Eits, Hm1.
  destruct (y_base_rows R F assigned ah al [(ph, hs)] lq Hah Hal HhF HlF bh bl eq_refl eq_refl m s Hm Hf) as (Hsx0 & Hsx1 & _).
  assert (Hx0 : Z.of_N (sol_x s 1 0) = s (VX 1 0)) by (apply Z2N.id; exact Hsx0).
  assert (Hx1 : Z.of_N (sol_x s 1 1) = s (VX 1 1)) by (apply Z2N.id; exact Hsx1).
  (* the gap bounds the low class *)
  destruct (ygap01 R F assigned ah al [(ph, hs)] lq Hah Hal Hcap) as (g & Hg & Hgal).
  change (yinst R F assigned ah al [(ph, hs)] lq) with I in Hg. fold W in Hg.
  assert (Hx_l : has_x I [bh; bl] W 1 = true) by (apply y_hasx1; [exact HlF|reflexivity|reflexivity]).
  assert (Hcv0 : count_vars I [bh; bl] 0 = [VX 1 0]) by (apply y_cv0; (assumption || reflexivity)).
  assert (Hcv1 : count_vars I [bh; bl] 1 = [VX 1 1]) by (apply y_cv1; (assumption || reflexivity)).
  assert (Hxl_le : sol_x s 1 1 <= g).
  { (* the only cut of the low class is in force: the blocker is open *)
    set (c := {| c_size := 0; c_blockers := [(0, if b_lr bh then None else Some (b_size bh))] |}).
    assert (Hopen : blocker_open I [bh; bl] s (0, if b_lr bh then None else Some (b_size bh)) = true).
    { unfold blocker_open. cbn [snd fst]. destruct (b_lr bh) eqn:Elr; [reflexivity|].
      rewrite Hcv0. unfold count_of. rewrite Hcv0. cbn [fold_right].
      unfold bh, xbatch_h in Elr |- *. cbn [b_lr b_size] in Elr |- *. rewrite Elr. clear - Hxh_lt Hx0. unfold z. lia. }
    exact (cut_bound R F assigned ah al [(ph, hs)] lq Hah Hal HhF HlF HFR bh bl eq_refl eq_refl 0 1 (or_introl (conj eq_refl eq_refl))
             m s Hm Hf bl c _ g (or_intror (or_introl eq_refl)) eq_refl ltac:(repeat constructor) (or_introl eq_refl)
             (or_introl eq_refl) Hopen Hg). }
  (* a strictly better feasible point: one more high task, no low task *)
  set (s' := xsol' s).
  assert (Hnn : forall v, (0 <= s' v)%Z) by (apply xsol'_nonneg; assumption).
  assert (Hs'0 : s' (VX 1 0) = (s (VX 1 0) + 1)%Z) by reflexivity.
  assert (Hs'1 : s' (VX 1 1) = 0%Z) by reflexivity.
  assert (Hzs' : zero_sum I [bh; bl] s' 0 1 (i_workers I) = 0%Z).
  { cbn [I xinst i_workers zero_sum fold_right]. fold I. fold W. unfold xvars. rewrite Hx_l. change (w_id W) with 1.
    destruct (zero_gap I W 0 1); cbn [lhs ones map fold_right fst snd]; rewrite ?Hs'1; reflexivity. }
  assert (Hf' : feasible m s' = true).
  { clear - Hm1 Eits Hcv0 Hcv1 Hs'0 Hs'1 Hzs' Hnn Hfit Hx0 Hxh_lt Hx_l Hsx0.
    rewrite Hm1, feasible_app. apply andb_true_iff. split.
    - unfold feasible, y_wentries. cbn [forallb entry_ok row_ok row_lhs r_le r_terms r_bound fold_right fst snd].
      rewrite Hs'0, Hs'1. unfold z. apply andb_true_iff. split; [lia|]. apply andb_true_iff. split; [lia|].
      apply andb_true_iff. split; [|reflexivity]. nia.
    - unfold feasible. apply forallb_forall. intros e He.
      destruct (emit_inv I [bh; bl] its [] e He) as [(it & Hit & ->)|(it & h & sz & Hit & Hbv & [->| ->])].
      + destruct (all_items_inv I [bh; bl] its it Eits Hit) as (b & Hb & Hbi).
        cbn [entry_ok]. unfold row_ok, row_lhs.
        destruct Hbi as [Hlr|c0 h0 bsz0 it0 Hc0' Hbl0 Hgi|c0 h0 sz0 zero Hc0' Hbl0 Hz|c0 h0 zero Hc0' Hbl0 Hz].
        * cbn [item_row r_le r_terms r_bound]. fold (lhs s' (ones (count_vars I [bh; bl] (b_rq b)))).
          destruct Hb as [<-|[<-|[]]].
          -- change (b_rq bh) with 0. rewrite Hcv0. cbn [ones map lhs fold_right fst snd]. rewrite Hs'0.
             unfold bh, xbatch_h in Hlr |- *. cbn [b_lr b_size] in Hlr |- *. rewrite Hlr. unfold z. lia.
          -- change (b_rq bl) with 1. rewrite Hcv1. cbn [ones map lhs fold_right fst snd]. rewrite Hs'1. unfold z. lia.
        * (* per-worker gap rows: only the low class has a cut *)
          destruct Hb as [<-|[<-|[]]]; [destruct Hc0'|].
          destruct Hgi as [w0 g0 sz0 Hbsz Hw0 Hcw Hgw Hgp|w0 g0 Hbsz Hw0 Hcw Hgw Hgp];
            (destruct Hw0 as [Hw0|[]]; subst w0); unfold xvars; change (b_rq bl) with 1; fold W; rewrite Hx_l; change (w_id W) with 1;
            cbn [item_row r_le r_terms r_bound ones map app]; cbn [fold_right fst snd]; rewrite Hs'1; unfold z; cbn; lia.
        * destruct Hb as [<-|[<-|[]]]; [destruct Hc0'|].
          cbn [item_row r_le r_terms r_bound]. fold (lhs s' (ones zero ++ [(VB h0 sz0, z (b_size bl))])).
          rewrite lhs_app, Hz. destruct Hc0' as [<-|[]]. destruct Hbl0 as [Heq|[]]. injection Heq as <- _.
          change (b_rq bl) with 1. rewrite Hzs'. cbn [lhs fold_right fst snd c_size]. unfold z. change (s' (VB 0 sz0)) with 1%Z. lia.
        * destruct Hb as [<-|[<-|[]]]; [destruct Hc0'|].
          cbn [item_row r_le r_terms r_bound]. fold (lhs s' (ones zero)).
          rewrite Hz. destruct Hc0' as [<-|[]]. destruct Hbl0 as [Heq|[]]. injection Heq as <- _.
          change (b_rq bl) with 1. rewrite Hzs'. reflexivity.
      + reflexivity.
      + cbn [entry_ok]. unfold row_ok, row_lhs, blk_row. cbn [r_le r_terms r_bound].
        fold (lhs s' (ones (count_vars I [bh; bl] h) ++ [(VB h sz, z sz)])). rewrite lhs_app.
        pose proof (lhs_ones_nonneg s' (count_vars I [bh; bl] h) Hnn) as Hge. cbn [lhs fold_right fst snd]. unfold z.
        change (s' (VB h sz)) with 1%Z. clear - Hge. lia. }
  (* ... with a larger objective *)
  specialize (Hopt s' Hf'). rewrite !(y_objective R F assigned ah al [(ph, hs)] lq Hah Hal HhF HlF bh bl eq_refl eq_refl m _ Hm) in Hopt.
  rewrite Hs'0, Hs'1 in Hopt. unfold z in Hopt.
  clear - Hopt Hgal Hxl_le Hx1 Hx0 Hah Hal. nia.
Qed.

(** the hypotheses are satisfiable by a non-trivial instance: interleaved levels incl. a common one, a
    running task, a positive gap, the limit of both classes reached; optimality by a pruned box sweep *)
Definition ex_q0 : list (N * list N) := [(9, [1; 2]); (5, [3]); (2, [4; 5])].
Definition ex_q1 : list (N * list N) := [(7, [11]); (5, [12; 13]); (3, [14]); (1, [15])].
Definition ex_inst : inst := yinst 11 8 [0] 3 2 ex_q0 ex_q1.
Definition ex_bs : list batch := Eval vm_compute in (match create_task_batches ex_inst with Ok b => b | _ => [] end).
Definition ex_m : list entry := Eval vm_compute in (match milp_of ex_inst ex_bs with Ok x => x | _ => [] end).
Definition ex_sol : sol := sol_of [(VX 1 0, 2%Z); (VX 1 1, 1%Z); (VB 1 1, 0%Z); (VB 0 2, 0%Z)].
Definition ex_ubs : list (var * Z) := [(VX 1 0, 4%Z); (VX 1 1, 4%Z); (VB 1 1, 1%Z); (VB 0 2, 1%Z)].
Definition ex_dispatch : dispatch := [(1, 1); (11, 1); (2, 1)].

Example exact_class_full_instance :
  0 < 3 /\ 0 < 2 /\ 8 <= 11 /\ 11 / 3 <= SCHED_MAX_TASK_PER_WORKER /\ 11 / 2 <= SCHED_MAX_TASK_PER_WORKER
  /\ ready_wf ex_q0 /\ NoDup (flat_ids ex_q0) /\ ready_wf ex_q1 /\ NoDup (flat_ids ex_q1)
  /\ (length ex_q0 <= 32)%nat /\ (length ex_q1 <= 32)%nat
  /\ create_task_batches ex_inst = Ok ex_bs /\ milp_of ex_inst ex_bs = Ok ex_m /\ feasible ex_m ex_sol = true
  /\ (forall s', feasible ex_m s' = true -> (objective ex_m s' <= objective ex_m ex_sol)%Z)
  /\ mapping_ok ex_inst ex_bs ex_sol ex_dispatch = true
  /\ map (fun b => length (b_cuts b)) ex_bs = [1%nat; 3%nat]
  /\ gap ex_inst (xworker 11 8 [0]) 0 1 = Ok 1.
Proof.
  repeat match goal with |- _ /\ _ => split end; try (vm_compute; congruence); try (cbn; lia); try (vm_compute; reflexivity).
  - split; repeat constructor; cbn; try lia; try discriminate.
  - unfold ex_q0, flat_ids. cbn [map concat snd app]. repeat constructor; cbn; intuition congruence.
  - split; repeat constructor; cbn; try lia; try discriminate.
  - unfold ex_q1, flat_ids. cbn [map concat snd app]. repeat constructor; cbn; intuition congruence.
  - apply (optimal_by_enumeration ex_m ex_ubs); vm_compute; reflexivity.
Qed.

Example exact_class_full_instance_no_inversion : inversion ex_inst ex_dispatch = false.
Proof.
  destruct exact_class_full_instance as (A1 & A2 & A3 & A4 & A5 & A6 & A7 & A8 & A9 & A10 & A11 & A12 & A13 & A14 & A15 & A16 & _).
  exact (exact_class_full_no_inversion 11 8 [0] 3 2 ex_q0 ex_q1 ex_bs ex_m ex_sol ex_dispatch
           A1 A2 A3 A4 A5 A6 A7 A8 A9 A10 A11 A12 A13 A14 A15 A16).
Qed.

Print Assumptions exact_class_full_no_inversion.
