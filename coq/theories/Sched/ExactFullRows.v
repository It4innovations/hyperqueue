(** C15, exact class with interleaved levels: the row system of a [yinst] instance with both classes
    placeable, and the exchange step: next to an optimal point with an inversion there is a feasible
    point with a larger objective. *)
From HQ Require Import Base.Prelude Gen.Consts Sched.Model Sched.ProofsOrder Sched.ProofsRows Sched.ProofsCuts
  Sched.ProofsExact Sched.ExactFullMerge Sched.ExactFullInst Sched.ExactFullBatches Sched.ExactFullZeroU Sched.ExactFullQueue.
Require Import ZifyBool ZifyN ZifyNat.
From Coq Require Import Sorting.Sorted.
Open Scope N_scope.
Local Arguments N.add : simpl never. Local Arguments N.sub : simpl never. Local Arguments N.mul : simpl never.
Local Arguments N.eqb : simpl never. Local Arguments N.ltb : simpl never. Local Arguments N.leb : simpl never.
Local Arguments N.of_nat : simpl never. Local Arguments N.to_nat : simpl never. Local Arguments N.div : simpl never.
Local Arguments N.min : simpl never. Local Arguments N.max : simpl never.

Lemma row_gapB : forall I bs (s : sol) w l h cut sz g bsize vars,
  entry_ok s (ERow (item_row I bs (IGapB w l h cut sz g bsize vars))) = true
  <-> (lhs s (ones vars) + z bsize * s (VB h sz) <= z (cut + bsize + g))%Z.
Proof.
  intros. cbn [entry_ok item_row]. unfold row_ok, row_lhs. cbn [r_le r_terms r_bound].
  fold (lhs s (ones vars ++ [(VB h sz, z bsize)])). rewrite lhs_app. cbn [lhs fold_right fst snd]. rewrite Z.leb_le. lia.
Qed.
Lemma row_gapU : forall I bs (s : sol) w l h cut g vars,
  entry_ok s (ERow (item_row I bs (IGapU w l h cut g vars))) = true <-> (lhs s (ones vars) <= z (cut + g))%Z.
Proof.
  intros. cbn [entry_ok item_row]. unfold row_ok, row_lhs. cbn [r_le r_terms r_bound].
  fold (lhs s (ones vars)). rewrite Z.leb_le. lia.
Qed.
Lemma row_zeroB : forall I bs (s : sol) l h cut sz bsize vars,
  entry_ok s (ERow (item_row I bs (IZeroB l h cut sz bsize vars))) = true
  <-> (lhs s (ones vars) + z bsize * s (VB h sz) <= z (bsize + cut))%Z.
Proof.
  intros. cbn [entry_ok item_row]. unfold row_ok, row_lhs. cbn [r_le r_terms r_bound].
  fold (lhs s (ones vars ++ [(VB h sz, z bsize)])). rewrite lhs_app. cbn [lhs fold_right fst snd]. rewrite Z.leb_le. lia.
Qed.
Lemma row_zeroU : forall I bs (s : sol) l h cut vars,
  entry_ok s (ERow (item_row I bs (IZeroU l h cut vars))) = true <-> (lhs s (ones vars) <= z cut)%Z.
Proof.
  intros. cbn [entry_ok item_row]. unfold row_ok, row_lhs. cbn [r_le r_terms r_bound].
  fold (lhs s (ones vars)). rewrite Z.leb_le. lia.
Qed.
Lemma row_size : forall I bs (s : sol) rq size,
  entry_ok s (ERow (item_row I bs (ISize rq size))) = true <-> (lhs s (ones (count_vars I bs rq)) <= z size)%Z.
Proof.
  intros. cbn [entry_ok item_row]. unfold row_ok, row_lhs. cbn [r_le r_terms r_bound].
  fold (lhs s (ones (count_vars I bs rq))). rewrite Z.leb_le. lia.
Qed.
Lemma row_blk : forall I bs (s : sol) h sz,
  entry_ok s (ERow (blk_row I bs h sz)) = true <-> (z sz <= lhs s (ones (count_vars I bs h)) + z sz * s (VB h sz))%Z.
Proof.
  intros. cbn [entry_ok]. unfold row_ok, row_lhs, blk_row. cbn [r_le r_terms r_bound].
  fold (lhs s (ones (count_vars I bs h) ++ [(VB h sz, z sz)])). rewrite lhs_app. cbn [lhs fold_right fst snd]. rewrite Z.leb_le. lia.
Qed.

Section YR.
Variables (R F : N) (assigned : list N) (a0 a1 : N) (q0 q1 : list (N * list N)).
Hypothesis Ha0 : 0 < a0.
Hypothesis Ha1 : 0 < a1.
Hypothesis H0F : a0 <= F.
Hypothesis H1F : a1 <= F.
Hypothesis HFR : F <= R.
Hypothesis Hc0 : R / a0 <= SCHED_MAX_TASK_PER_WORKER.
Hypothesis Hc1 : R / a1 <= SCHED_MAX_TASK_PER_WORKER.
Variables (bA bB : batch).
Hypothesis HrqA : b_rq bA = 0.
Hypothesis HrqB : b_rq bB = 1.

Let I := yinst R F assigned a0 a1 q0 q1.
Let W := xworker R F assigned.
Let bs := [bA; bB].

Lemma y_pkA : placement_kind I W bA = PX.
Proof. apply placement_px. rewrite HrqA. apply y_placeable0; assumption. Qed.
Lemma y_pkB : placement_kind I W bB = PX.
Proof. apply placement_px. rewrite HrqB. apply y_placeable1; assumption. Qed.

Lemma y_hasx0 : has_x I bs W 0 = true.
Proof. unfold has_x, bs. cbn [existsb]. rewrite y_pkA, HrqA. reflexivity. Qed.
Lemma y_hasx1 : has_x I bs W 1 = true.
Proof. unfold has_x, bs. cbn [existsb]. rewrite y_pkB, HrqB, HrqA. reflexivity. Qed.

Lemma y_cv : forall h, count_vars I bs h = (if 0 =? h then [VX 1 h] else []) ++ (if 1 =? h then [VX 1 h] else []).
Proof.
  intros h. unfold count_vars, bs. cbn [I yinst i_workers map concat]. fold I. fold W.
  rewrite y_pkA, y_pkB, HrqA, HrqB, !app_nil_r. change (w_id W) with 1. reflexivity.
Qed.
Lemma y_cv0 : count_vars I bs 0 = [VX 1 0].
Proof. rewrite y_cv. reflexivity. Qed.
Lemma y_cv1 : count_vars I bs 1 = [VX 1 1].
Proof. rewrite y_cv. reflexivity. Qed.

Lemma y_xvars0 : xvars I bs W 0 = [VX 1 0].
Proof. unfold xvars. rewrite y_hasx0. reflexivity. Qed.
Lemma y_xvars1 : xvars I bs W 1 = [VX 1 1].
Proof. unfold xvars. rewrite y_hasx1. reflexivity. Qed.

Lemma y_weight0 : x_weight I 0 0 = 100 * a0.
Proof.
  clear - I W Ha0 H0F.
  unfold x_weight. change (req_of I 0) with [(0, a0)]. change (nlen (i_workers I)) with 1.
  cbn [fold_right fst snd]. change (resource_sum I 0) with (F + 0).
  change (prod_sums_except I (Some 0)) with 1.
  destruct (N.eqb_spec (F + 0) 0); [lia|]. unfold SCHED_RESERVATION_WEIGHT_DIV. lia.
Qed.
Lemma y_weight1 : x_weight I 0 1 = 100 * a1.
Proof.
  clear - I W Ha1 H1F.
  unfold x_weight. change (req_of I 1) with [(0, a1)]. change (nlen (i_workers I)) with 1.
  cbn [fold_right fst snd]. change (resource_sum I 0) with (F + 0).
  change (prod_sums_except I (Some 0)) with 1.
  destruct (N.eqb_spec (F + 0) 0); [lia|]. unfold SCHED_RESERVATION_WEIGHT_DIV. lia.
Qed.

Definition y_wentries : list entry :=
  [EVar (VX 1 0) KNat (z (100 * a0)); EVar (VX 1 1) KNat (z (100 * a1));
   ERow {| r_kind := RRes 1 0; r_terms := [(VX 1 0, z a0); (VX 1 1, z a1)]; r_le := true; r_bound := z F |}].

Lemma y_worker_entries : worker_entries I bs 0 W = y_wentries.
Proof.
  unfold worker_entries, bs. change (inst_on I W) with I. cbn [map concat]. rewrite y_pkA, y_pkB, HrqA, HrqB.
  change (w_id W) with 1. rewrite y_weight0, y_weight1.
  change (seqN 0 (N.to_nat (i_nres I))) with [0]. cbn [map concat app].
  change (req_of I 0) with [(0, a0)]. change (req_of I 1) with [(0, a1)].
  cbn [map concat fst snd app]. change (0 =? 0) with true. cbn [app].
  change (rv_get (w_free W) 0) with F. reflexivity.
Qed.

Lemma y_milp : forall m, milp_of I bs = Ok m ->
  exists its, all_items I bs = Ok its /\ m = y_wentries ++ emit I bs [] its.
Proof.
  intros m Hm. unfold milp_of in Hm. destruct (all_items I bs) as [its| |] eqn:E; cbn [bind] in Hm; try discriminate.
  injection Hm as Hm. exists its. split; [reflexivity|]. rewrite <- Hm.
  cbn [I yinst i_workers mapi_from concat]. fold I. fold W. rewrite app_nil_r.
  change (N.of_nat 0) with 0. rewrite y_worker_entries. reflexivity.
Qed.

Lemma y_objective : forall m s, milp_of I bs = Ok m ->
  objective m s = (100 * (z a0 * s (VX 1 0) + z a1 * s (VX 1 1)))%Z.
Proof.
  clear - I W Ha0 Ha1 H0F H1F HrqA HrqB.
  intros m s Hm. destruct (y_milp m Hm) as (its & _ & ->). rewrite objective_app, objective_emit.
  unfold objective, y_wentries. cbn [fold_right]. unfold z. lia.
Qed.

Lemma y_base_rows : forall m s, milp_of I bs = Ok m -> feasible m s = true ->
  (0 <= s (VX 1 0))%Z /\ (0 <= s (VX 1 1))%Z /\ (z a0 * s (VX 1 0) + z a1 * s (VX 1 1) <= z F)%Z.
Proof.
  clear - I W Ha0 Ha1 H0F H1F HrqA HrqB.
  intros m s Hm Hf. destruct (y_milp m Hm) as (its & _ & ->). rewrite feasible_app in Hf.
  apply andb_true_iff in Hf. destruct Hf as [Hf _]. unfold feasible, y_wentries in Hf.
  cbn [forallb entry_ok row_ok row_lhs r_le r_terms r_bound fold_right fst snd] in Hf. lia.
Qed.

(** the aggregate sum over the zero-gap workers: there is one worker *)
Lemma y_zero_sum : forall (s : sol) h Z, zero_sum I bs s h Z (i_workers I) = (if zero_gap I W h Z then lhs s (ones (xvars I bs W Z)) else 0)%Z.
Proof. clear. intros s h Z. cbn [I yinst i_workers zero_sum fold_right]. fold I. fold W. lia. Qed.

Section Exch.
Variables (X Y : N).
Hypothesis HXY : (X = 0 /\ Y = 1) \/ (X = 1 /\ Y = 0).
Definition bz (Z : N) : batch := if Z =? 0 then bA else bB.
Variables (eX eY : ent) (p q : N).
Hypothesis HBF : BF eX eY X Y (bz X) (bz Y).
Hypothesis HlrY : b_lr (fst eY) = false.
Hypothesis HLX : b_limit (fst eX) = F / az a0 a1 X.
Hypothesis HLY : b_limit (fst eY) = F / az a0 a1 Y.
Variables (m : list entry) (s : sol).
Hypothesis Hm : milp_of I bs = Ok m.
Hypothesis Hf : feasible m s = true.
Let xX := sol_x s 1 X.
Let xY := sol_x s 1 Y.
Hypothesis H1 : xX < Tge eX p.
Hypothesis H2 : Tgt eY q < xY.
Hypothesis H3 : az a0 a1 X * (xX + 1) + az a0 a1 Y * Tge eY p <= F.
Hypothesis Hp : In p (prios eX).
Hypothesis Hq : In q (prios eY).
Hypothesis Hqp : q < p.

Definition cnt (h : N) : N := if h =? X then xX + 1 else if h <=? 1 then Tge eY p else 0.
Definition ysol : sol :=
  fun v => match v with
           | VX w r => if w =? 1 then z (cnt r) else 0%Z
           | VR _ _ => 0%Z
           | VB h sz => if cnt h <? sz then 1%Z else 0%Z
           end.

Lemma cntX : cnt X = xX + 1.
Proof. unfold cnt. rewrite N.eqb_refl. reflexivity. Qed.
Lemma cntY : cnt Y = Tge eY p.
Proof. unfold cnt. destruct HXY as [[-> ->]|[-> ->]]; reflexivity. Qed.

Lemma az_pos : forall Z, 0 < az a0 a1 Z.
Proof. intros Z. unfold az. destruct (Z =? 0); assumption. Qed.

Lemma az_sum : forall f : N -> Z, (z a0 * f 0%N + z a1 * f 1%N = z (az a0 a1 X) * f X + z (az a0 a1 Y) * f Y)%Z.
Proof. intros f. destruct HXY as [[-> ->]|[-> ->]]; [reflexivity | apply Z.add_comm]. Qed.

Lemma sX : s (VX 1 X) = z xX.
Proof. destruct (y_base_rows m s Hm Hf) as (B0 & B1 & _). unfold xX, sol_x, z. clear - HXY B0 B1. destruct HXY as [[-> ->]|[-> ->]]; lia. Qed.
Lemma sY : s (VX 1 Y) = z xY.
Proof. destruct (y_base_rows m s Hm Hf) as (B0 & B1 & _). unfold xY, sol_x, z. clear - HXY B0 B1. destruct HXY as [[-> ->]|[-> ->]]; lia. Qed.

Lemma res_row : az a0 a1 X * xX + az a0 a1 Y * xY <= F.
Proof.
  destruct (y_base_rows m s Hm Hf) as (B0 & B1 & B2). pose proof sX as E1. pose proof sY as E2.
  unfold az. destruct HXY as [[-> ->]|[-> ->]]; change (0 =? 0) with true in *; change (1 =? 0) with false in *;
    cbv iota; unfold z in *; rewrite E1, E2 in B2; clear - B2; lia.
Qed.

Lemma GY_lt : Tge eY p < xY.
Proof. unfold Tge, Tgt in *. pose proof (sum_ge_le_gt p q (snd eY) Hqp). lia. Qed.

Lemma xY_le_L : xY <= b_limit (fst eY).
Proof.
  rewrite HLY. apply N.div_le_lower_bound; [pose proof (az_pos Y); lia|].
  pose proof res_row as Hr. pose proof (az_pos X) as HaX. clear - Hr HaX. nia.
Qed.

Lemma xX1_le_L : xX + 1 <= b_limit (fst eX).
Proof.
  rewrite HLX. apply N.div_le_lower_bound; [pose proof (az_pos X); lia|].
  pose proof (az_pos Y) as HaY. clear - H3 HaY. nia.
Qed.

Lemma lrY_q : lr_gt eY q = false.
Proof. unfold lr_gt. rewrite HlrY. cbn [orb]. apply N.ltb_ge. pose proof xY_le_L. lia. Qed.

Lemma Tge_le_Ttot : forall e pi, Tge e pi <= Ttot e.
Proof. intros. unfold Tge, Ttot. pose proof (sum_ge_le_all pi (snd e)). lia. Qed.

Lemma rq_bzX : b_rq (bz X) = X.
Proof. apply (bf_rqX _ _ _ _ _ _ HBF). Qed.
Lemma rq_bzY : b_rq (bz Y) = Y.
Proof. apply (bf_rqY _ _ _ _ _ _ HBF). Qed.

Lemma ysol_cv : forall h, lhs ysol (ones (count_vars I bs h)) = z (cnt h).
Proof.
  intros h. rewrite y_cv.
  destruct (N.eqb_spec 0 h) as [<-|H0].
  { change (1 =? 0) with false. cbn [app ones map lhs fold_right fst snd ysol]. change (1 =? 1) with true. lia. }
  destruct (N.eqb_spec 1 h) as [<-|H1'].
  { cbn [app ones map lhs fold_right fst snd ysol]. change (1 =? 1) with true. lia. }
  cbn [app ones map lhs fold_right]. unfold cnt.
  destruct (N.eqb_spec h X); [destruct HXY as [[-> _]|[-> _]]; congruence|].
  destruct (N.leb_spec h 1); [lia|reflexivity].
Qed.

Lemma ysol_xv : forall Z, Z = 0 \/ Z = 1 -> lhs ysol (ones (xvars I bs W Z)) = z (cnt Z).
Proof. intros Z [->| ->]; [rewrite y_xvars0|rewrite y_xvars1]; cbn [ones map lhs fold_right fst snd ysol]; change (1 =? 1) with true; lia. Qed.

Lemma s_xv : forall Z, Z = 0 \/ Z = 1 -> lhs s (ones (xvars I bs W Z)) = s (VX 1 Z).
Proof. intros Z [->| ->]; [rewrite y_xvars0|rewrite y_xvars1]; cbn [ones map lhs fold_right fst snd]; clear; lia. Qed.

Lemma XY01 : (X = 0 \/ X = 1) /\ (Y = 0 \/ Y = 1) /\ X <> Y.
Proof. clear - HXY. destruct HXY as [[-> ->]|[-> ->]]; repeat split; auto; discriminate. Qed.

Lemma count_of_X : count_of I bs s X = s (VX 1 X).
Proof. unfold count_of. destruct HXY as [[-> ->]|[-> ->]]; [rewrite y_cv0|rewrite y_cv1]; cbn [fold_right]; lia. Qed.

Lemma ysol_nonneg : forall v, (0 <= ysol v)%Z.
Proof using Ha0 Ha1 H0F H1F HFR Hc0 Hc1 HrqA HrqB HXY HlrY HLX HLY Hf H1 H2 H3 Hqp.
  clear. intros [w r|w r|h sz]; cbn [ysol]; [destruct (w =? 1); unfold z | | destruct (cnt h <? sz)]; lia.
Qed.

Lemma vb_s : forall its it h sz, all_items I bs = Ok its -> In it its -> item_bvar it = Some (h, sz) ->
  (0 <= s (VB h sz) <= 1)%Z /\ ((count_of I bs s h < z sz)%Z -> s (VB h sz) = 1%Z).
Proof.
  intros its it h sz Hits Hin Hbv.
  destruct (milp_items I bs m Hm) as (its' & Hits' & Hemit). rewrite Hits in Hits'. injection Hits' as <-.
  destruct (emit_blk_in I bs its [] it h sz Hin Hbv (fun x => x)) as [Hblk Hvar].
  split.
  - pose proof (feasible_in m s _ Hf (Hemit _ Hvar)) as Hv. cbn [entry_ok] in Hv. lia.
  - apply (blocker_forced I bs m s h sz Hf (Hemit _ Hblk) (Hemit _ Hvar)).
Qed.

Lemma GY_le_L : Tge eY p <= b_limit (fst eY).
Proof. pose proof GY_lt. pose proof xY_le_L. lia. Qed.

Lemma xX1_le_bsize : xX + 1 <= b_size (bz X).
Proof.
  destruct (b_lr (bz X)) eqn:E.
  - rewrite (bf_limX _ _ _ _ _ _ HBF E). apply xX1_le_L.
  - rewrite (bf_sizeX _ _ _ _ _ _ HBF E). pose proof (Tge_le_Ttot eX p). lia.
Qed.

Lemma bz_in : forall Z, In (bz Z) bs.
Proof. intros Z. unfold bz, bs. destruct (Z =? 0); [left|right; left]; reflexivity. Qed.

(** [ysol] opens a blocker of X only where [s] must have it open: X places one task more *)
Lemma ysol_vbX : forall its it sz, all_items I bs = Ok its -> In it its -> item_bvar it = Some (X, sz) ->
  (0 <= ysol (VB X sz) <= s (VB X sz))%Z.
Proof.
  intros its it sz Hits Hin Hbv. destruct (vb_s its it X sz Hits Hin Hbv) as [Hb01 Hforce].
  cbn [ysol]. rewrite cntX. destruct (N.ltb_spec (xX + 1) sz) as [Hlt|Hge]; [|lia].
  rewrite Hforce; [lia|]. rewrite count_of_X, sX. clear - Hlt. unfold z. lia.
Qed.

(** the rows of Y's batch hold in [ysol] because they hold in [s]: Y places fewer tasks, X more *)
Lemma rows_Y : forall its it, all_items I bs = Ok its -> In it its -> batch_item I bs (bz Y) it ->
  entry_ok s (ERow (item_row I bs it)) = true -> entry_ok ysol (ERow (item_row I bs it)) = true.
Proof.
  intros its it Hits Hin Hbi Hs.
  pose proof GY_lt as HG. pose proof sY as EsY. destruct XY01 as (HX01 & HY01 & Hne).
  destruct Hbi as [Hlr|c h bsz it0 Hc Hbl Hgi|c h sz zero Hc Hbl Hz|c h zero Hc Hbl Hz].
  - rewrite rq_bzY. apply row_size. rewrite ysol_cv, cntY. rewrite (bf_sizeY _ _ _ _ _ _ HBF Hlr).
    pose proof (Tge_le_Ttot eY p) as Ht. clear - Ht. unfold z. lia.
  - destruct (bf_ycut _ _ _ _ _ _ HBF c Hc) as (bsz0 & Hb0). rewrite Hb0 in Hbl. destruct Hbl as [Heq|[]].
    injection Heq as <- <-.
    destruct Hgi as [w g sz Hbsz Hw Hcw Hgw Hgp|w g Hbsz Hw Hcw Hgw Hgp]; destruct Hw as [<-|[]]; rewrite rq_bzY in *.
    + apply row_gapB in Hs. apply row_gapB. rewrite ysol_xv, cntY by assumption. rewrite s_xv, EsY in Hs by assumption.
      pose proof (ysol_vbX its _ sz Hits Hin eq_refl) as Hb. clear - Hs Hb HG. unfold z in *. nia.
    + apply row_gapU in Hs. apply row_gapU. rewrite ysol_xv, cntY by assumption. rewrite s_xv, EsY in Hs by assumption.
      clear - Hs HG. unfold z in *. lia.
  - destruct (bf_ycut _ _ _ _ _ _ HBF c Hc) as (bsz0 & Hb0). rewrite Hb0 in Hbl. destruct Hbl as [Heq|[]].
    injection Heq as E1 E2. subst h. rewrite rq_bzY in *.
    apply row_zeroB in Hs. apply row_zeroB. rewrite (Hz ysol), y_zero_sum. rewrite (Hz s), y_zero_sum in Hs.
    rewrite ysol_xv, cntY by assumption. rewrite s_xv, EsY in Hs by assumption.
    pose proof (ysol_vbX its _ sz Hits Hin eq_refl) as Hb. clear - Hs Hb HG.
    destruct (zero_gap I W X Y); unfold z in *; nia.
  - destruct (bf_ycut _ _ _ _ _ _ HBF c Hc) as (bsz0 & Hb0). rewrite Hb0 in Hbl. destruct Hbl as [Heq|[]].
    injection Heq as E1 E2. subst h. rewrite rq_bzY in *.
    apply row_zeroU in Hs. apply row_zeroU. rewrite (Hz ysol), y_zero_sum. rewrite (Hz s), y_zero_sum in Hs.
    rewrite ysol_xv, cntY by assumption. rewrite s_xv, EsY in Hs by assumption.
    clear - Hs HG. destruct (zero_gap I W X Y); unfold z in *; lia.
Qed.

(** the rows of X's batch hold in [ysol]: a cut of X is either not in force (Y holds all its tasks
    of priority >= p) or large enough *)
Lemma rows_X : forall it, batch_item I bs (bz X) it -> entry_ok ysol (ERow (item_row I bs it)) = true.
Proof.
  intros it Hbi.
  pose proof xX1_le_bsize as Hbsz. pose proof GY_le_L as HGL. destruct XY01 as (HX01 & HY01 & Hne).
  destruct Hbi as [Hlr|c h bsz it0 Hc Hbl Hgi|c h sz zero Hc Hbl Hz|c h zero Hc Hbl Hz].
  - rewrite rq_bzX. apply row_size. rewrite ysol_cv, cntX. rewrite (bf_sizeX _ _ _ _ _ _ HBF Hlr).
    pose proof (Tge_le_Ttot eX p) as Ht. clear - Ht H1. unfold z. lia.
  - destruct (bf_xcut _ _ _ _ _ _ HBF c p Hc HGL) as (bsz0 & Hb0 & Hor). rewrite Hb0 in Hbl. destruct Hbl as [Heq|[]].
    injection Heq as <- <-.
    destruct Hgi as [w g sz Hbsz' Hw Hcw Hgw Hgp|w g Hbsz' Hw Hcw Hgw Hgp]; destruct Hw as [<-|[]]; rewrite rq_bzX in *.
    + apply row_gapB. rewrite ysol_xv, cntX by assumption. cbn [ysol]. rewrite cntY.
      destruct Hor as [(sz0 & E0 & Hle)|Hle].
      * rewrite Hbsz' in E0. injection E0 as <-. clear - Hle Hbsz. destruct (N.ltb_spec (Tge eY p) sz); unfold z; lia.
      * clear - Hle H1. destruct (Tge eY p <? sz); unfold z; lia.
    + apply row_gapU. rewrite ysol_xv, cntX by assumption.
      destruct Hor as [(sz0 & E0 & Hle)|Hle]; [congruence|]. clear - Hle H1. unfold z. lia.
  - destruct (bf_xcut _ _ _ _ _ _ HBF c p Hc HGL) as (bsz0 & Hb0 & Hor). rewrite Hb0 in Hbl. destruct Hbl as [Heq|[]].
    injection Heq as E1 E2. subst h. rewrite rq_bzX in *.
    apply row_zeroB. rewrite (Hz ysol), y_zero_sum, ysol_xv, cntX by assumption. cbn [ysol]. rewrite cntY.
    destruct Hor as [(sz0 & E0 & Hle)|Hle].
    + rewrite E2 in E0. injection E0 as <-. clear - Hle Hbsz.
      destruct (N.ltb_spec (Tge eY p) sz); destruct (zero_gap I W Y X); unfold z; lia.
    + clear - Hle H1. destruct (Tge eY p <? sz); destruct (zero_gap I W Y X); unfold z; lia.
  - destruct (bf_xcut _ _ _ _ _ _ HBF c p Hc HGL) as (bsz0 & Hb0 & Hor). rewrite Hb0 in Hbl. destruct Hbl as [Heq|[]].
    injection Heq as E1 E2. subst h. rewrite rq_bzX in *.
    apply row_zeroU. rewrite (Hz ysol), y_zero_sum, ysol_xv, cntX by assumption.
    destruct Hor as [(sz0 & E0 & Hle)|Hle]; [congruence|]. clear - Hle H1. destruct (zero_gap I W Y X); unfold z; lia.
Qed.

Lemma ygapXY : exists g, gap I W X Y = Ok g /\ g * az a0 a1 Y < az a0 a1 X.
Proof.
  unfold az. destruct HXY as [[-> ->]|[-> ->]]; change (0 =? 0) with true; change (1 =? 0) with false; cbv iota.
  - apply ygap01; assumption.
  - apply ygap10; assumption.
Qed.

Lemma capable_X : capable I W X = true.
Proof. clear - HXY H0F H1F HFR. destruct HXY as [[-> ->]|[-> ->]]; [apply y_capable0|apply y_capable1]; assumption. Qed.

Lemma hasx_Y : has_x I bs W Y = true.
Proof. clear - HXY H0F H1F HrqA HrqB. destruct HXY as [[-> ->]|[-> ->]]; [apply y_hasx1|apply y_hasx0]. Qed.

Lemma cv_ne : forall Z, Z = 0 \/ Z = 1 -> count_vars I bs Z <> [].
Proof. intros Z [->| ->]; [rewrite y_cv0|rewrite y_cv1]; discriminate. Qed.

Lemma cut_bound : forall bY c bsz g, In bY bs -> b_rq bY = Y -> StronglySorted le_size (b_cuts bY) ->
  In c (b_cuts bY) -> In (X, bsz) (c_blockers c) -> blocker_open I bs s (X, bsz) = true ->
  gap I W X Y = Ok g -> xY <= c_size c + g.
Proof.
  intros bY c bsz g HbY HrqY Hsorted Hc Hblk Hopen Hg. destruct XY01 as (HX01 & HY01 & Hne).
  assert (Hcvne : count_vars I bs (b_rq bY) <> []) by (rewrite HrqY; apply cv_ne; assumption).
  assert (Hzs : zero_sum I bs s X (b_rq bY) (i_workers I) = (if zero_gap I W X Y then z xY else 0)%Z).
  { rewrite HrqY, y_zero_sum, s_xv, sY by assumption. reflexivity. }
  destruct (N.ltb_spec 0 g) as [Hgp|Hg0].
  - pose proof (cut_semantics_gap I bs m s bY c X bsz W g Hm Hf HbY Hcvne Hc Hblk Hopen (or_introl eq_refl)
                  capable_X ltac:(rewrite HrqY; exact Hg) Hgp) as Hb.
    rewrite HrqY in Hb. unfold placed in Hb. rewrite hasx_Y in Hb. change (w_id W) with 1 in Hb. fold xY in Hb. clear - Hb. lia.
  - apply N.le_0_r in Hg0. subst g.
    assert (Hzg : zero_gap I W X Y = true) by (unfold zero_gap; rewrite capable_X, Hg; reflexivity).
    rewrite Hzg in Hzs.
    destruct bsz as [sz|].
    + pose proof (cut_semantics_zero I bs m s bY c X sz Hm Hf HbY Hcvne Hc Hblk Hopen) as Hb.
      rewrite Hzs in Hb. clear - Hb. unfold z in Hb. lia.
    + pose proof (cut_semantics_zero_unbounded I bs m s bY c X Hm Hf HbY Hcvne Hsorted Hc Hblk) as Hb.
      rewrite Hzs in Hb. clear - Hb. unfold z in Hb. lia.
Qed.

(** the guard cut bounds Y: at most its tasks of priority >= p plus the gap *)
Lemma xY_bound : forall g, gap I W X Y = Ok g -> xY <= Tge eY p + g.
Proof.
  intros g Hg. destruct XY01 as (HX01 & HY01 & Hne).
  destruct (bf_guard _ _ _ _ _ _ HBF p q Hp Hq Hqp lrY_q) as (c & bsz & Hc & Hcs & Hbl & Hsz).
  assert (Hblk : In (X, bsz) (c_blockers c)) by (rewrite Hbl; left; reflexivity).
  assert (Hopen : blocker_open I bs s (X, bsz) = true).
  { unfold blocker_open. cbn [snd fst]. destruct bsz as [sz|]; [|reflexivity].
    pose proof (cv_ne X HX01) as Hne'. destruct (count_vars I bs X) eqn:E; [congruence|].
    rewrite count_of_X, sX. apply Z.ltb_lt. clear - Hsz H1. unfold z. lia. }
  pose proof (cut_bound (bz Y) c bsz g (bz_in Y) rq_bzY (bf_sorted _ _ _ _ _ _ HBF) Hc Hblk Hopen Hg) as Hb.
  clear - Hb Hcs. lia.
Qed.

Lemma ysol_feasible : feasible m ysol = true.
Proof.
  destruct (y_milp m Hm) as (its & Hits & Em). destruct XY01 as (HX01 & HY01 & Hne).
  assert (Hall : forall e, In e m -> entry_ok ysol e = true).
  { intros e He. rewrite Em in He. apply in_app_or in He. destruct He as [He|He].
    - assert (Hres : (z a0 * z (cnt 0) + z a1 * z (cnt 1) <= z F)%Z).
      { rewrite (az_sum (fun h => z (cnt h))), cntX, cntY. clear - H3. unfold z. lia. }
      unfold y_wentries in He. destruct He as [<-|[<-|[<-|[]]]]; cbn [entry_ok ysol]; change (1 =? 1) with true.
      + unfold z. lia.
      + unfold z. lia.
      + unfold row_ok, row_lhs. cbn [r_le r_terms r_bound fold_right fst snd ysol]. change (1 =? 1) with true.
        apply Z.leb_le. lia.
    - destruct (emit_inv I bs its [] e He) as [(it & Hit & ->)|(it & h & sz & Hit & Hbv & [->| ->])].
      + destruct (all_items_inv I bs its it Hits Hit) as (b & Hb & Hbi).
        assert (Hbz : b = bz X \/ b = bz Y).
        { unfold bs in Hb. unfold bz. destruct Hb as [<-|[<-|[]]]; destruct HXY as [[-> ->]|[-> ->]]; auto. }
        destruct Hbz as [->| ->].
        * apply rows_X. exact Hbi.
        * apply (rows_Y its it Hits Hit Hbi). apply (feasible_in m s _ Hf). rewrite Em. apply in_or_app. right.
          apply emit_row_in. exact Hit.
      + cbn [entry_ok ysol]. destruct (cnt h <? sz); reflexivity.
      + apply row_blk. rewrite ysol_cv. cbn [ysol]. destruct (N.ltb_spec (cnt h) sz); unfold z; lia. }
  unfold feasible. apply forallb_forall. exact Hall.
Qed.

Theorem exchange : exists s', feasible m s' = true /\ (objective m s < objective m s')%Z.
Proof.
  exists ysol. split; [exact ysol_feasible|].
  (* Y gives up at most g tasks, worth less than the one task X gains *)
  destruct ygapXY as (g & Hg & Hgs). pose proof (xY_bound g Hg) as Hb.
  rewrite !(y_objective m _ Hm). cbn [ysol]. change (1 =? 1) with true.
  rewrite (az_sum (fun h => s (VX 1 h))), (az_sum (fun h => z (cnt h))), sX, sY, cntX, cntY.
  clear - Hgs Hb. unfold z. nia.
Qed.

End Exch.
End YR.
