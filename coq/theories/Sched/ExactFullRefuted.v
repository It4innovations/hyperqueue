(** C15: the wider candidate [C15_no_inversion_exact_class_full] (one worker, one resource kind, two
    request classes with INTERLEAVED priority levels) is FALSE of the faithful model.

    K6 - pruning of the cuts.  [create_task_batches] keeps at most SCHED_BATCH_PRUNING_MAX_SIZE = 32 cuts
    per batch ([prune_progressive]: the first 4, then a quadratically thinned selection).  Two classes
    whose priority levels alternate more than 32 times lose cuts; for a lost cut "fewer than s tasks of
    X placed => at most c tasks of Y" the next kept cut (c' > c) takes over, so Y may place tasks of
    levels BELOW a waiting X task.

    Witness: one worker with 133 fractions, class 0 asks 2, class 1 asks 3 (all gaps are 0), 40 levels
    per class with one task each, priorities 80, 78, ... (class 0) and 79, 77, ... (class 1).  With all
    cuts the feasible placements are (k, k) and (k + 1, k); the pruning drops (among others) the cut
    "x0 >= 27 or x1 <= 26" of class 1, which admits (26, 27) - the only way to use all 133 fractions
    (2 * 26 + 3 * 27 = 133; the best regular point (27, 26) uses 132).  It is optimal, it dispatches the
    class-1 task of priority 27 while the class-0 task of priority 28 waits and fits. *)
From HQ Require Import Base.Prelude Gen.Consts Sched.Model Sched.ProofsOrder Sched.ProofsRows Sched.ProofsCuts Sched.ProofsExact.
Require Import ZifyBool ZifyN ZifyNat.
Open Scope N_scope.

Definition k6_q0 : list (N * list N) := map (fun k => (82 - 2 * k, [k])) (seqN 1 40).
Definition k6_q1 : list (N * list N) := map (fun k => (81 - 2 * k, [100 + k])) (seqN 1 40).

Definition k6_inst : inst :=
  {| i_nres := 1; i_now := 0;
     i_workers := [{| w_id := 1; w_res := [133]; w_free := [133]; w_assigned := []; w_blocked := []; w_term := None |}];
     i_classes := [ {| rc_entries := [(0, 2)]; rc_min_time := 0; rc_all := [] |};
                    {| rc_entries := [(0, 3)]; rc_min_time := 0; rc_all := [] |} ];
     i_queues := [ {| q_ready := k6_q0; q_prefill := None |}; {| q_ready := k6_q1; q_prefill := None |} ] |}.

(** 26 tasks of class 0, 27 of class 1; every blocker variable at its forced value *)
Definition k6_sol : sol :=
  fun v => match v with
           | VX 1 0 => 26%Z
           | VX 1 1 => 27%Z
           | VX _ _ => 0%Z
           | VR _ _ => 0%Z
           | VB 0 sz => if 26 <? sz then 1%Z else 0%Z
           | VB _ sz => if 27 <? sz then 1%Z else 0%Z
           end.

Definition k6_dispatch : dispatch :=
  map (fun k => (k, 1)) (seqN 1 26) ++ map (fun k => (100 + k, 1)) (seqN 1 27).

Definition k6_bs : list batch :=
  Eval vm_compute in (match create_task_batches k6_inst with Ok b => b | _ => [] end).
Definition k6_m : list entry :=
  Eval vm_compute in (match milp_of k6_inst k6_bs with Ok x => x | _ => [] end).

(** the cut "x0 >= 27 or x1 <= 26" of class 1 is gone: 40 cuts were built, 32 are kept *)
Example k6_pruned :
  map (fun b => length (b_cuts b)) k6_bs = [32%nat; 32%nat]
  /\ existsb (fun b => existsb (fun c => c_size c =? 26) (b_cuts b) && (b_rq b =? 1)) k6_bs = false
  /\ existsb (fun b => existsb (fun c => c_size c =? 25) (b_cuts b) && (b_rq b =? 1)) k6_bs = true.
Proof. repeat split. Qed.

Lemma k6_batches : create_task_batches k6_inst = Ok k6_bs.
Proof. reflexivity. Qed.
Lemma k6_milp : milp_of k6_inst k6_bs = Ok k6_m.
Proof. reflexivity. Qed.
Lemma k6_feasible : feasible k6_m k6_sol = true.
Proof. reflexivity. Qed.
Lemma k6_objective : objective k6_m k6_sol = 13300%Z.
Proof. reflexivity. Qed.

(** optimality: the resource row bounds the objective of every feasible point by 100 * 133 *)
Definition k6_its : list item :=
  Eval vm_compute in (match all_items k6_inst k6_bs with Ok x => x | _ => [] end).
Definition k6_W : list entry :=
  [EVar (VX 1 0) KNat 200%Z; EVar (VX 1 1) KNat 300%Z;
   ERow {| r_kind := RRes 1 0; r_terms := [(VX 1 0, 2%Z); (VX 1 1, 3%Z)]; r_le := true; r_bound := 133%Z |}].
Lemma k6_m_eq : k6_m = k6_W ++ emit k6_inst k6_bs [] k6_its.
Proof. reflexivity. Qed.

Lemma k6_optimal : forall s', feasible k6_m s' = true -> (objective k6_m s' <= objective k6_m k6_sol)%Z.
Proof.
  intros s' Hf. rewrite k6_objective. rewrite k6_m_eq in Hf |- *.
  rewrite feasible_app in Hf. apply andb_true_iff in Hf. destruct Hf as [Hf _].
  rewrite objective_app, objective_emit.
  unfold feasible, k6_W in Hf. cbn [forallb entry_ok row_ok row_lhs r_le r_terms r_bound fold_right fst snd] in Hf.
  unfold objective, k6_W. cbn [fold_right]. lia.
Qed.

Lemma k6_mapping : mapping_ok k6_inst k6_bs k6_sol k6_dispatch = true.
Proof. reflexivity. Qed.
(** the one inversion: the class-1 task 127 (priority 27) runs, the class-0 task 27 (priority 28) waits *)
Lemma k6_inversions : inversions k6_inst k6_dispatch =
  [({| t_id := 127; t_rq := 1; t_prio := 27 |},
    {| w_id := 1; w_res := [133]; w_free := [133]; w_assigned := []; w_blocked := []; w_term := None |},
    {| t_id := 27; t_rq := 0; t_prio := 28 |})].
Proof. reflexivity. Qed.

Lemma k6_inversion : inversion k6_inst k6_dispatch = true.
Proof. unfold inversion. rewrite k6_inversions. reflexivity. Qed.

Example k6_witness :
  In ({| t_id := 127; t_rq := 1; t_prio := 27 |},
      {| w_id := 1; w_res := [133]; w_free := [133]; w_assigned := []; w_blocked := []; w_term := None |},
      {| t_id := 27; t_rq := 0; t_prio := 28 |}) (inversions k6_inst k6_dispatch).
Proof. rewrite k6_inversions. left. reflexivity. Qed.

(** none of the known classes K1 .. K5 explains it: K5 does not apply (the waiting task does not fit
    next to everything dispatched) and the tight rows K1, K2, K4 hold *)
Example k6_unclassified :
  forallb (fun x => match classify k6_inst k6_bs k6_sol k6_dispatch x with VUnclassified | VK3 | VK4 => true | _ => false end)
          (inversions k6_inst k6_dispatch) = true.
Proof. rewrite k6_inversions. reflexivity. Qed.

(** the statement of [properties/C15.v] ([C15_no_inversion_exact_class_full]), repeated verbatim *)
Definition no_inversion_exact_class_full : Prop :=
  forall I bs m s d w,
    i_workers I = [w] -> i_nres I = 1%N -> length (i_classes I) = 2%nat -> inst_wf I ->
    create_task_batches I = Ok bs -> milp_of I bs = Ok m -> feasible m s = true ->
    (forall s', feasible m s' = true -> (objective m s' <= objective m s)%Z) ->
    mapping_ok I bs s d = true -> inversion I d = false.

Lemma k6_inst_wf : inst_wf k6_inst.
Proof.
  split.
  - cbn. repeat constructor. intros [].
  - intros c Hc. cbn in Hc. destruct Hc as [<-|[<-|[]]]; split; repeat constructor; cbn; lia.
  - intros c Hc. cbn in Hc. destruct Hc as [<-|[<-|[]]]; constructor.
Qed.

Theorem no_inversion_exact_class_full_refuted : ~ no_inversion_exact_class_full.
Proof.
  intros H.
  pose proof (H k6_inst k6_bs k6_m k6_sol k6_dispatch _ eq_refl eq_refl eq_refl k6_inst_wf
                k6_batches k6_milp k6_feasible k6_optimal k6_mapping) as Hn.
  rewrite k6_inversion in Hn. discriminate.
Qed.

(** in the form of the other refutations ([Witness.refutes] without the verdict) *)
Theorem K6_refuted : exists I s d bs m,
  (exists w, i_workers I = [w]) /\ i_nres I = 1 /\ length (i_classes I) = 2%nat /\ inst_wf I
  /\ create_task_batches I = Ok bs /\ milp_of I bs = Ok m /\ feasible m s = true
  /\ (forall s', feasible m s' = true -> (objective m s' <= objective m s)%Z)
  /\ mapping_ok I bs s d = true /\ inversion I d = true.
Proof.
  exists k6_inst, k6_sol, k6_dispatch, k6_bs, k6_m.
  split; [eexists; reflexivity|]. split; [reflexivity|]. split; [reflexivity|]. split; [exact k6_inst_wf|].
  split; [exact k6_batches|]. split; [exact k6_milp|]. split; [exact k6_feasible|]. split; [exact k6_optimal|].
  split; [exact k6_mapping|exact k6_inversion].
Qed.

Print Assumptions no_inversion_exact_class_full_refuted.
Print Assumptions K6_refuted.
