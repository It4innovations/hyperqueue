(** C15, part "priority order": [Priority::from_user_priority] is strictly monotone on all of i32, and
    [take_tasks] pops by descending priority, then ascending id. *)
From HQ Require Import Base.Prelude Gen.Consts Sched.Model.
Require Import ZifyBool ZifyN ZifyNat.
From Coq Require Import Sorting.Sorted.
Open Scope Z_scope.

Lemma testbit_pow2 : forall n m, 0 <= n -> 0 <= m -> Z.testbit (2 ^ n) m = (m =? n).
Proof.
  intros n m Hn Hm. destruct (Z.eqb_spec m n) as [->|Hne].
  - apply Z.pow2_bits_true; lia.
  - apply Z.pow2_bits_false; lia.
Qed.

Lemma land_bit_clear : forall x n, 0 <= n -> Z.testbit x n = false -> Z.land x (2 ^ n) = 0.
Proof.
  intros x n Hn Hb. apply Z.bits_inj'. intros m Hm.
  rewrite Z.land_spec, Z.bits_0, testbit_pow2 by lia.
  destruct (Z.eqb_spec m n) as [->|Hne]; [rewrite Hb; reflexivity|apply andb_false_r].
Qed.

Lemma lxor_pow2 : forall x n, 0 <= n ->
  Z.lxor x (2 ^ n) = if Z.testbit x n then x - 2 ^ n else x + 2 ^ n.
Proof.
  intros x n Hn. destruct (Z.testbit x n) eqn:Hb.
  - set (y := Z.lxor x (2 ^ n)).
    assert (Hyb : Z.testbit y n = false).
    { unfold y. rewrite Z.lxor_spec, Hb, testbit_pow2, Z.eqb_refl by lia. reflexivity. }
    assert (Hx : x = Z.lxor y (2 ^ n)).
    { unfold y. rewrite Z.lxor_assoc, Z.lxor_nilpotent, Z.lxor_0_r. reflexivity. }
    rewrite <- Z.add_nocarry_lxor in Hx by (apply land_bit_clear; assumption). lia.
  - symmetry. apply Z.add_nocarry_lxor. apply land_bit_clear; assumption.
Qed.

Lemma from_user_priority_closed : forall p, - 2 ^ 31 <= p < 2 ^ 31 ->
  from_user_priority p = Z.to_N ((p + 2 ^ 31) * 2 ^ 32).
Proof.
  intros p Hp. unfold from_user_priority. f_equal.
  change (Z.of_N SCHED_PRIORITY_SIGN_FLIP) with (2 ^ 31).
  change (Z.of_N SCHED_PRIORITY_SHIFT) with 32.
  rewrite Z.shiftl_mul_pow2 by lia. rewrite lxor_pow2 by lia.
  destruct (Z_lt_le_dec p 0) as [Hneg|Hpos].
  - assert (Hm : p mod 2 ^ 64 = p + 2 ^ 64) by (symmetry; apply Z.mod_unique with (q := -1); lia).
    rewrite Hm.
    assert (Hb : Z.testbit (p + 2 ^ 64) 31 = true).
    { apply Z.testbit_true; [lia|].
      assert (Hq : (p + 2 ^ 64) / 2 ^ 31 = 2 ^ 33 - 1).
      { symmetry. apply Z.div_unique with (r := p + 2 ^ 31); lia. }
      rewrite Hq. reflexivity. }
    rewrite Hb. symmetry. apply Z.mod_unique with (q := 2 ^ 32 - 1); lia.
  - assert (Hm : p mod 2 ^ 64 = p) by (apply Z.mod_small; lia).
    rewrite Hm.
    assert (Hb : Z.testbit p 31 = false).
    { destruct (Z.eq_dec p 0) as [->|Hp0]; [reflexivity|].
      apply Z.bits_above_log2; [lia|]. apply Z.log2_lt_pow2; lia. }
    rewrite Hb. apply Z.mod_small; lia.
Qed.

Lemma priority_strictly_monotone : forall p q,
  - 2 ^ 31 <= p < 2 ^ 31 -> - 2 ^ 31 <= q < 2 ^ 31 ->
  (p < q <-> (from_user_priority p < from_user_priority q)%N).
Proof.
  intros p q Hp Hq. rewrite !from_user_priority_closed by assumption. lia.
Qed.

Close Scope Z_scope.
Open Scope N_scope.
Arguments N.add : simpl never. Arguments N.sub : simpl never. Arguments N.mul : simpl never.
Arguments N.eqb : simpl never. Arguments N.ltb : simpl never. Arguments N.leb : simpl never.
Arguments N.of_nat : simpl never. Arguments N.to_nat : simpl never.

Definition flat_ids (rd : list (N * list N)) : list N := concat (map snd rd).
Definition flat_tasks (rd : list (N * list N)) : list (N * N) :=
  concat (map (fun e => map (fun id => (fst e, id)) (snd e)) rd).

Definition before (a b : N * N) : Prop := fst b < fst a \/ (fst a = fst b /\ snd a < snd b).

Definition ids_wf (ids : list N) : Prop := ids <> [] /\ StronglySorted N.lt ids.
Definition ready_wf (rd : list (N * list N)) : Prop :=
  StronglySorted (fun a b => fst b < fst a) rd /\ Forall (fun e => ids_wf (snd e)) rd.

Lemma nlen_app {A} (a b : list A) : nlen (a ++ b) = nlen a + nlen b.
Proof. unfold nlen. rewrite app_length. lia. Qed.

Lemma to_nat_sub_nlen : forall {A} n (l : list A), N.to_nat (n - nlen l) = (N.to_nat n - length l)%nat.
Proof. intros. unfold nlen. rewrite Nnat.N2Nat.inj_sub, Nnat.Nat2N.id. reflexivity. Qed.

Lemma take_loop_spec : forall rd n l rd',
  take_loop rd n = Ok (l, rd') ->
  l = firstn (N.to_nat n) (flat_ids rd) /\ flat_ids rd' = skipn (N.to_nat n) (flat_ids rd)
  /\ n <= nlen (flat_ids rd).
Proof.
  induction rd as [|[p ids] t IH]; intros n l rd' H; simpl in H.
  - destruct (N.eqb_spec n 0) as [->|Hn]; [|discriminate]. injection H as <- <-. repeat split. apply N.le_0_l.
  - destruct (N.eqb_spec n 0) as [->|Hn]; [injection H as <- <-; repeat split; apply N.le_0_l|].
    unfold flat_ids in *. simpl. rewrite firstn_app, skipn_app, nlen_app, <- to_nat_sub_nlen.
    destruct (N.leb_spec (nlen ids) n) as [Hle|Hgt].
    + destruct (take_loop t (n - nlen ids)) as [[l1 rd1]| |] eqn:E; simpl in H; try discriminate.
      injection H as <- <-. destruct (IH _ _ _ E) as (-> & -> & H3).
      rewrite (firstn_all2 ids), (skipn_all2 ids) by (unfold nlen in Hle; lia). repeat split. lia.
    + injection H as <- <-. replace (n - nlen ids) with 0 by lia. simpl. rewrite app_nil_r. repeat split. lia.
Qed.

Lemma take_loop_panics : forall rd n, nlen (flat_ids rd) < n -> take_loop rd n = Panic 1601.
Proof.
  induction rd as [|[p ids] t IH]; intros n H; simpl.
  - destruct (N.eqb_spec n 0); [unfold nlen in H; simpl in H; lia|reflexivity].
  - unfold flat_ids in H. simpl in H. rewrite nlen_app in H.
    destruct (N.eqb_spec n 0); [lia|].
    destruct (N.leb_spec (nlen ids) n); [|lia].
    rewrite IH; [reflexivity|]. unfold flat_ids. lia.
Qed.

Lemma flat_tasks_prio : forall (P : N -> Prop) rd,
  Forall (fun e : N * list N => P (fst e)) rd -> Forall (fun b => P (fst b)) (flat_tasks rd).
Proof.
  intros P. induction rd as [|[q ids] t IH]; intros H; unfold flat_tasks; simpl; [constructor|].
  inversion H; subst. apply Forall_app. split; [|apply IH; assumption].
  apply Forall_forall. intros x Hx. apply in_map_iff in Hx. destruct Hx as (i & <- & _). assumption.
Qed.

Lemma flat_tasks_sorted : forall rd, ready_wf rd -> StronglySorted before (flat_tasks rd).
Proof.
  induction rd as [|[p ids] t IH]; intros [Hs Hf]; unfold flat_tasks; simpl; [constructor|].
  inversion Hs as [|? ? Hs' Hall]; subst. inversion Hf as [|? ? [_ Hids] Hf']; subst. simpl in *.
  specialize (IH (conj Hs' Hf')). fold (flat_tasks t).
  pose proof (flat_tasks_prio (fun x => x < p) t Hall) as Hrest.
  clear Hs Hf Hall Hs' Hf'.
  induction ids as [|i ids IHi]; simpl; [assumption|].
  inversion Hids as [|? ? Hids' Hlt]; subst.
  constructor; [apply IHi; assumption|].
  apply Forall_app. split.
  - apply Forall_forall. intros x Hx. apply in_map_iff in Hx. destruct Hx as (j & <- & Hj).
    right. simpl. split; [reflexivity|]. rewrite Forall_forall in Hlt. auto.
  - eapply Forall_impl; [|exact Hrest]. intros b Hb. left. assumption.
Qed.

Lemma flat_ids_tasks : forall rd, flat_ids rd = map snd (flat_tasks rd).
Proof.
  induction rd as [|[p ids] t IH]; [reflexivity|].
  unfold flat_ids, flat_tasks in *. simpl. rewrite map_app, <- IH. f_equal.
  rewrite map_map. simpl. symmetry. apply map_id.
Qed.

(** [take_tasks] on a queue without prefill pops exactly the first [n] tasks in the order
    "descending priority, then ascending id" and leaves the rest. *)
Lemma take_tasks_order : forall q n l q',
  q_prefill q = None -> ready_wf (q_ready q) ->
  take_tasks q n = Ok (l, q') ->
  StronglySorted before (flat_tasks (q_ready q))
  /\ l = map snd (firstn (N.to_nat n) (flat_tasks (q_ready q)))
  /\ flat_ids (q_ready q') = map snd (skipn (N.to_nat n) (flat_tasks (q_ready q)))
  /\ q_prefill q' = None.
Proof.
  intros q n l q' Hp Hwf H. unfold take_tasks in H. rewrite Hp in H.
  destruct (take_loop (q_ready q) n) as [[l1 rd1]| |] eqn:E; simpl in H; try discriminate.
  injection H as <- <-. simpl. destruct (take_loop_spec _ _ _ _ E) as (-> & -> & _).
  split; [apply flat_tasks_sorted; assumption|].
  rewrite flat_ids_tasks, firstn_map, skipn_map. auto.
Qed.

Lemma take_tasks_too_many : forall q n,
  q_prefill q = None -> queue_size q < n -> take_tasks q n = Panic 1601.
Proof.
  intros q n Hp Hn. unfold take_tasks. rewrite Hp. rewrite take_loop_panics; [reflexivity|].
  unfold queue_size in Hn. clear Hp. revert Hn. generalize (q_ready q). intros rd.
  assert (Hs : nlen (flat_ids rd) = fold_right (fun e acc => nlen (snd e) + acc) 0 rd).
  { induction rd as [|e t IH]; [reflexivity|]. unfold flat_ids in *. simpl. rewrite nlen_app, IH. reflexivity. }
  rewrite Hs. auto.
Qed.

Lemma insert_id_in : forall x ids y, In y (insert_id x ids) <-> y = x \/ In y ids.
Proof.
  intros x ids y. induction ids as [|z t IH]; simpl; [intuition|].
  destruct (x <? z); [simpl; intuition|]. destruct (N.eqb_spec x z) as [->|_]; simpl; [intuition|].
  rewrite IH. intuition.
Qed.

Lemma insert_id_sorted : forall x ids, StronglySorted N.lt ids -> StronglySorted N.lt (insert_id x ids).
Proof.
  induction ids as [|y t IH]; intros Hs; simpl; [repeat constructor|].
  inversion Hs as [|? ? Hs' Hall]; subst. destruct (N.ltb_spec x y) as [Hlt|Hge].
  - constructor; [assumption|]. constructor; [assumption|]. eapply Forall_impl; [|exact Hall]. intros; lia.
  - destruct (N.eqb_spec x y) as [->|Hne]; [assumption|].
    constructor; [apply IH; assumption|]. apply Forall_forall. intros z Hz. apply insert_id_in in Hz.
    destruct Hz as [->|Hz]; [lia|]. rewrite Forall_forall in Hall. auto.
Qed.

Lemma insert_id_nonempty : forall x ids, insert_id x ids <> [].
Proof. intros x [|y t]; simpl; [discriminate|]. destruct (x <? y); [discriminate|]. destruct (x =? y); discriminate. Qed.

Lemma ready_add_prio : forall rd id p e,
  In e (ready_add rd id p) -> fst e = p \/ exists e', In e' rd /\ fst e' = fst e.
Proof.
  induction rd as [|[q ids] t IH]; intros id p e; simpl; [intros [<-|[]]; left; reflexivity|].
  destruct (q <? p); [intros [<-|He]; [left; reflexivity|right; exists e; auto]|].
  destruct (N.eqb_spec q p) as [->|_]; (intros [<-|He]; [|]).
  - left. reflexivity.
  - right. exists e. simpl. auto.
  - right. exists (q, ids). simpl. auto.
  - destruct (IH _ _ _ He) as [?|(e' & He' & Heq)]; [left; assumption|right; exists e'; simpl; auto].
Qed.

Lemma ready_add_wf : forall rd id p, ready_wf rd -> ready_wf (ready_add rd id p).
Proof.
  induction rd as [|[q ids] t IH]; intros id p [Hs Hf]; simpl; [split; repeat constructor; discriminate|].
  inversion Hs as [|? ? Hs' Hall]; subst. inversion Hf as [|? ? Hids Hf']; subst.
  destruct (N.ltb_spec q p) as [Hlt|Hge].
  - split.
    + constructor; [assumption|]. constructor; [assumption|].
      eapply Forall_impl; [|exact Hall]. simpl. intros; lia.
    + constructor; [split; [discriminate|repeat constructor]|assumption].
  - destruct (N.eqb_spec q p) as [->|Hne].
    + split; [constructor; assumption|]. constructor; [|assumption].
      split; [apply insert_id_nonempty|apply insert_id_sorted, Hids].
    + destruct (IH id p (conj Hs' Hf')) as [I1 I2]. split; [|constructor; assumption].
      constructor; [assumption|]. apply Forall_forall. intros e He. simpl.
      destruct (ready_add_prio _ _ _ _ He) as [->|(e' & He' & <-)]; [lia|]. rewrite Forall_forall in Hall. apply (Hall e' He').
Qed.

(** the order in which [take_tasks] pops when a prefill set exists: if the first ready entry has the
    prefill's priority it goes first, then the prefill set (in its hash order = list order), then the
    rest of the ready entries *)
Definition pop_order (q : queue) : list (N * N) :=
  match q_prefill q with
  | None => flat_tasks (q_ready q)
  | Some (pp, ts) =>
      match q_ready q with
      | (fp, ids) :: t =>
          if fp =? pp then map (fun id => (fp, id)) ids ++ map (fun id => (pp, id)) ts ++ flat_tasks t
          else map (fun id => (pp, id)) ts ++ flat_tasks (q_ready q)
      | [] => map (fun id => (pp, id)) ts
      end
  end.

Lemma firstn_map_snd : forall (p : N) ids k, map snd (firstn k (map (fun id : N => (p, id)) ids)) = firstn k ids.
Proof. intros p ids. induction ids as [|x t IH]; intros [|k]; simpl; auto. f_equal. apply IH. Qed.

Lemma map_snd_tag : forall (p : N) ids, map snd (map (fun id : N => (p, id)) ids) = ids.
Proof. intros. rewrite map_map. simpl. apply map_id. Qed.

Lemma firstn_tagged : forall (p : N) ids k rest,
  map snd (firstn k (map (fun id : N => (p, id)) ids ++ rest))
  = firstn k ids ++ map snd (firstn (k - length ids) rest).
Proof. intros. rewrite firstn_app, map_app, map_length, firstn_map_snd. reflexivity. Qed.

Lemma firstn_min_nlen : forall {A} (l : list A) n, firstn (N.to_nat (N.min n (nlen l))) l = firstn (N.to_nat n) l.
Proof.
  intros A l n. unfold nlen. destruct (N.le_gt_cases n (N.of_nat (length l))) as [H|H].
  - rewrite N.min_l by assumption. reflexivity.
  - rewrite N.min_r by lia. rewrite Nnat.Nat2N.id, firstn_all, firstn_all2 by lia. reflexivity.
Qed.

Lemma drain_prefill_spec : forall pp ts count,
  let '(taken, pf, c) := drain_prefill (Some (pp, ts)) count in
  taken = firstn (N.to_nat count) ts /\ c = count - N.min count (nlen ts)
  /\ (nlen ts <= count -> pf = None).
Proof.
  intros pp ts count. unfold drain_prefill. split; [apply firstn_min_nlen|split; [reflexivity|]].
  intros Hle. rewrite skipn_all2; [reflexivity|]. unfold nlen in *. lia.
Qed.

Lemma sub_min : forall n a, n - N.min n a = n - a.
Proof. lia. Qed.

Lemma take_loop_firstn : forall rd n l rd',
  take_loop rd n = Ok (l, rd') -> l = map snd (firstn (N.to_nat n) (flat_tasks rd)).
Proof.
  intros rd n l rd' H. destruct (take_loop_spec _ _ _ _ H) as (-> & _). rewrite flat_ids_tasks, firstn_map. reflexivity.
Qed.

Theorem take_tasks_prefill_order : forall q n l q',
  take_tasks q n = Ok (l, q') -> l = map snd (firstn (N.to_nat n) (pop_order q)).
Proof.
  intros q n l q' H. unfold take_tasks, pop_order in *.
  destruct (q_prefill q) as [[pp ts]|] eqn:Ep.
  - destruct (q_ready q) as [|[fp ids] t] eqn:Er; [|destruct (N.eqb_spec fp pp) as [->|Hne]].
    + (* empty ready part *)
      pose proof (drain_prefill_spec pp ts n) as Hd. destruct (drain_prefill (Some (pp, ts)) n) as [[taken pf] c].
      destruct Hd as (-> & _).
      destruct (take_loop [] c) as [[l1 rd1]| |] eqn:E; cbn [bind] in H; try discriminate.
      injection H as <- _. rewrite (take_loop_firstn _ _ _ _ E), firstn_map_snd. cbn. rewrite firstn_nil. apply app_nil_r.
    + (* same priority: first entry, prefill, rest; past the first entry the rest of it is gone *)
      pose proof (drain_prefill_spec pp ts (n - N.min n (nlen ids))) as Hd.
      destruct (drain_prefill (Some (pp, ts)) (n - N.min n (nlen ids))) as [[taken pf] c].
      destruct Hd as (-> & -> & _).
      destruct (take_loop _ _) as [[l1 rd1]| |] eqn:E; cbn [bind] in H; try discriminate.
      injection H as <- _.
      rewrite (take_loop_firstn _ _ _ _ E), !firstn_tagged, firstn_min_nlen, !sub_min, !to_nat_sub_nlen.
      f_equal. f_equal. destruct (N.leb_spec (nlen ids) n) as [Hle|Hgt].
      * rewrite N.min_r, skipn_all2 by (unfold nlen in *; lia). reflexivity.
      * replace (N.to_nat n - length ids - length ts)%nat with O by (unfold nlen in Hgt; lia). reflexivity.
    + (* different priority: prefill first *)
      pose proof (drain_prefill_spec pp ts n) as Hd. destruct (drain_prefill (Some (pp, ts)) n) as [[taken pf] c].
      destruct Hd as (-> & -> & _).
      destruct (take_loop _ _) as [[l1 rd1]| |] eqn:E; cbn [bind] in H; try discriminate.
      injection H as <- _. rewrite (take_loop_firstn _ _ _ _ E), firstn_tagged, sub_min, to_nat_sub_nlen. reflexivity.
  - destruct (take_loop (q_ready q) n) as [[l1 rd1]| |] eqn:E; cbn [bind] in H; try discriminate.
    injection H as <- _. exact (take_loop_firstn _ _ _ _ E).
Qed.

(** with the invariant "the prefill set has the highest priority" (kept by [check_dispose_prefill]) the
    pop order is by non-increasing priority *)
Definition prefill_wf (q : queue) : Prop :=
  ready_wf (q_ready q) /\
  match q_prefill q with
  | Some (pp, _) => Forall (fun e => fst e <= pp) (q_ready q)
  | None => True
  end.

Theorem pop_order_sorted : forall q, prefill_wf q -> StronglySorted (fun a b => fst b <= fst a) (pop_order q).
Proof.
  intros q [Hwf Hpf]. unfold pop_order.
  assert (Hweak : forall rd, ready_wf rd -> StronglySorted (fun a b : N * N => fst b <= fst a) (flat_tasks rd)).
  { intros rd H. pose proof (flat_tasks_sorted rd H) as Hs. induction Hs as [|a l Hs IH Hall]; constructor; [assumption|].
    eapply Forall_impl; [|exact Hall]. intros b [Hb|[Hb _]]; lia. }
  assert (Hconst : forall p ids (rest : list (N * N)), Forall (fun b => fst b <= p) rest ->
             StronglySorted (fun a b : N * N => fst b <= fst a) rest ->
             StronglySorted (fun a b : N * N => fst b <= fst a) (map (fun id => (p, id)) ids ++ rest)).
  { intros p ids rest Hle Hs. induction ids as [|i t IH]; simpl; [assumption|].
    constructor; [assumption|]. apply Forall_app. split.
    - apply Forall_forall. intros x Hx. apply in_map_iff in Hx. destruct Hx as (j & <- & _). simpl. lia.
    - exact Hle. }
  destruct (q_prefill q) as [[pp ts]|]; [|apply Hweak; assumption].
  destruct (q_ready q) as [|[fp ids] t] eqn:Er.
  - rewrite <- (app_nil_r (map _ ts)). apply Hconst; constructor.
  - destruct Hwf as [Hs Hf]. inversion Hs as [|? ? Hs' Hall]; subst. inversion Hf as [|? ? Hi Hf']; subst.
    inversion Hpf as [|? ? Hfp Hpf']; subst. simpl in *.
    destruct (N.eqb_spec fp pp) as [->|Hne].
    + apply Hconst.
      * apply Forall_app. split.
        -- apply Forall_forall. intros x Hx. apply in_map_iff in Hx. destruct Hx as (j & <- & _). simpl. lia.
        -- apply (flat_tasks_prio (fun x => x <= pp)). assumption.
      * apply Hconst; [apply (flat_tasks_prio (fun x => x <= pp)); assumption|apply Hweak; split; assumption].
    + apply Hconst; [apply (flat_tasks_prio (fun x => x <= pp)); constructor; assumption|].
      apply Hweak. split; [constructor|constructor]; assumption.
Qed.

(** Non-vacuity: a queue built by [queue_add] from user priorities incl. the extremes of i32. *)
Definition example_queue : queue :=
  fold_left (fun q t => queue_add q (fst t) (from_user_priority (snd t))) 
    [(7, 0%Z); (3, (-2147483648)%Z); (5, 2147483647%Z); (4, 0%Z); (9, (-1)%Z); (1, 2147483647%Z)] empty_queue.

Example example_queue_wf : ready_wf (q_ready example_queue) /\ q_prefill example_queue = None.
Proof.
  split; [|reflexivity]. unfold example_queue. cbn [fold_left].
  repeat apply ready_add_wf. split; constructor.
Qed.

Example example_queue_take :
  take_tasks example_queue 4 = Ok ([1; 5; 4; 7], {| q_ready := [(from_user_priority (-1), [9]); (0, [3])]; q_prefill := None |}).
Proof. vm_compute. reflexivity. Qed.
