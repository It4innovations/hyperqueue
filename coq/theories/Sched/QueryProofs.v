(** Theorems about the demand side of automatic allocation (C17): [Sched.Query], the model of
    [compute_new_worker_query] / [new_worker_query].  All statements are for EVERY state, EVERY list of
    queries and EVERY solver answer (for the bounds by the number of waiting tasks: every answer accepted by
    the checker [query_sol_ok]).

    - [query_response_length]          one count per query (or the documented empty / error answer)
    - [query_no_candidates_no_demand]  no waiting single-node class has a placement variable on the fake
                                       workers of query i  ->  count i = 0
    - [class_fits_time] / [class_fits_resources]   what "has a placement variable" means
    - [query_count_le_max]             count i <= max_sn_workers i
    - [query_only_fake_ids]            only fake workers (ids above the worker counter) are counted
    - [mn_entry_sound] / [mn_entry_complete] / [mn_no_admissible_no_entry] / [mn_sorted]
    - [batches_inv]                    (auxiliary) every batch holds between 1 and #waiting tasks of its class.
    The bounds by the number of waiting tasks are in [QueryBounds]. *)
From HQ Require Import Base.Prelude Gen.Consts Sched.Model Sched.ProofsRows Sched.ProofsCuts Sched.Query.
Require Import ZifyBool ZifyN ZifyNat.
Require Import Sorting.Sorted Sorting.Permutation.
Open Scope N_scope.
Arguments N.add : simpl never. Arguments N.sub : simpl never. Arguments N.mul : simpl never.
Arguments N.eqb : simpl never. Arguments N.ltb : simpl never. Arguments N.leb : simpl never.
Arguments N.of_nat : simpl never. Arguments N.to_nat : simpl never. Arguments N.div : simpl never.
Arguments N.max : simpl never. Arguments N.min : simpl never.
Arguments Z.of_N : simpl never. Arguments Z.mul : simpl never. Arguments Z.add : simpl never.

Definition ent_inv (I : inst) (e : batch * list (N * N)) : Prop :=
  b_limit (fst e) = batch_limit I (b_rq (fst e))
  /\ b_size (fst e) + sum_sizes (snd e) <= waiting_of I (b_rq (fst e))
  /\ (b_lr (fst e) = true -> b_limit (fst e) <= waiting_of I (b_rq (fst e))).

Lemma Forall_map_at : forall {A} (P : A -> Prop) f l i,
  (forall x, P x -> P (f x)) -> Forall P l -> Forall P (map_at f l i).
Proof.
  intros A P f l. induction l as [|x t IH]; intros i Hf H; destruct i; simpl; auto;
    inversion H; subst; constructor; auto.
Qed.

Lemma Forall_mapi_from : forall {A} (P : A -> Prop) (f : nat -> A -> A) l i,
  (forall j x, P x -> P (f j x)) -> Forall P l -> Forall P (mapi_from f l i).
Proof.
  intros A P f l. induction l as [|x t IH]; intros i Hf H; simpl; auto.
  inversion H; subst. constructor; auto.
Qed.

Lemma advance_one_inv : forall I e, ent_inv I e -> ent_inv I (advance_one e).
Proof.
  intros I [b l] (H1 & H2 & H3). unfold advance_one. simpl in *.
  destruct l as [|[p sz] rest]; [repeat split; assumption|].
  unfold sum_sizes in H2. simpl in H2. fold (sum_sizes rest) in H2.
  destruct (b_limit b <? b_size b + sz) eqn:E; unfold ent_inv; simpl.
  - repeat split; [assumption|unfold sum_sizes; simpl; lia|intros _; lia].
  - repeat split; [assumption|lia|assumption].
Qed.

Lemma add_cut_inv : forall I st i, Forall (ent_inv I) st -> Forall (ent_inv I) (add_cut st i).
Proof.
  intros I st i H. unfold add_cut.
  set (st1 := mapi_from _ st 0).
  assert (H1 : Forall (ent_inv I) st1).
  { apply Forall_mapi_from; [|assumption]. intros j e He. destruct (is_higher i j (fst e)); [|assumption].
    destruct e as [b0 l0]. exact He. }
  destruct (higher_priorities st i); [assumption|].
  apply Forall_map_at; [|assumption]. intros [b0 l0] He. exact He.
Qed.

Lemma merge_loop_inv : forall I fuel st u, Forall (ent_inv I) st -> Forall (ent_inv I) (merge_loop fuel st u).
Proof.
  intros I. induction fuel as [|fuel IH]; intros st u H; simpl; [assumption|].
  destruct (found_from st (highest_prio st) 0) as [|i [|j rest]] eqn:E; [assumption| |].
  - destruct (match u with Some u0 => Nat.eqb u0 i | None => false end).
    + apply IH. apply Forall_map_at; [apply advance_one_inv|assumption].
    + apply IH. apply Forall_map_at; [apply advance_one_inv|]. apply add_cut_inv. assumption.
  - apply IH.
    assert (Ha : forall l s0, Forall (ent_inv I) s0 -> Forall (ent_inv I) (fold_left (fun s i => map_at advance_one s i) l s0)).
    { induction l as [|a l IHl]; intros s0 Hs; simpl; [assumption|]. apply IHl. apply Forall_map_at; [apply advance_one_inv|assumption]. }
    assert (Hc : forall l s0, Forall (ent_inv I) s0 -> Forall (ent_inv I) (fold_left add_cut l s0)).
    { induction l as [|a l IHl]; intros s0 Hs; simpl; [assumption|]. apply IHl. apply add_cut_inv. assumption. }
    apply Ha. apply Hc. assumption.
Qed.

Lemma collect_res_Forall : forall {A B} (f : A -> res B) (Q : A -> Prop) (P : B -> Prop) l out,
  (forall a b, Q a -> f a = Ok b -> P b) -> Forall Q l -> collect_res (map f l) = Ok out -> Forall P out.
Proof.
  intros A B f Q P. induction l as [|a t IH]; intros out Hf HQ H; simpl in H.
  - inversion H. constructor.
  - destruct (f a) as [b| |] eqn:E; simpl in H; try discriminate.
    destruct (collect_res (map f t)) as [bs| |] eqn:E2; simpl in H; try discriminate.
    inversion H; subst. inversion HQ; subst. constructor; [eapply Hf; eauto|eapply IH; eauto].
Qed.

Definition batch_inv (I : inst) (b : batch) : Prop :=
  0 < b_size b
  /\ b_limit b = batch_limit I (b_rq b)
  /\ b_size b <= waiting_of I (b_rq b)
  /\ (b_lr b = true -> b_limit b <= waiting_of I (b_rq b)).

Lemma batches_inv : forall I bs, create_task_batches I = Ok bs -> Forall (batch_inv I) bs.
Proof.
  intros I bs H. unfold create_task_batches in H.
  set (qs := filter _ _) in H. set (st0 := map _ qs) in H.
  set (st := merge_loop _ st0 None) in H.
  destruct (collect_res _) as [pruned| |] eqn:E; simpl in H; try discriminate. inversion H; subst. clear H.
  assert (H0 : Forall (ent_inv I) st0).
  { unfold st0. apply Forall_forall. intros e He. apply in_map_iff in He. destruct He as ([i q] & <- & Hq).
    unfold qs in Hq. apply filter_In in Hq. destruct Hq as [Hq _].
    apply mapi_from_in in Hq. destruct Hq as (k & a & Hk & Heq). inversion Heq; subst.
    unfold ent_inv. simpl. repeat split; [|discriminate].
    unfold waiting_of, queue_total. rewrite Nnat.Nat2N.id.
    rewrite (nth_error_nth _ _ empty_queue Hk). lia. }
  assert (H1 : Forall (ent_inv I) st) by (apply merge_loop_inv; assumption).
  assert (H2 : Forall (fun b => b_limit b = batch_limit I (b_rq b) /\ b_size b <= waiting_of I (b_rq b)
                                /\ (b_lr b = true -> b_limit b <= waiting_of I (b_rq b))) pruned).
  { eapply collect_res_Forall; [|exact H1|exact E].
    intros [b l] b' (Ha & Hb & Hc) Hf. simpl in *.
    destruct (prune_progressive _ _ _); simpl in Hf; try discriminate. inversion Hf; subst. simpl.
    repeat split; [assumption|lia|assumption]. }
  apply Forall_forall. intros b Hb. apply filter_In in Hb. destruct Hb as [Hb Hs].
  rewrite Forall_forall in H2. destruct (H2 b Hb) as (Ha & Hb' & Hc).
  unfold batch_inv. repeat split; try assumption. lia.
Qed.

Lemma seqN_length : forall n s, length (seqN s n) = n.
Proof. induction n as [|n IH]; intros s; simpl; [reflexivity|]. rewrite IH. reflexivity. Qed.

Lemma fake_groups_length : forall nres now qs next, length (fake_groups nres now qs next) = length qs.
Proof. intros nres now. induction qs as [|q t IH]; intros next; simpl; [reflexivity|]. rewrite IH. reflexivity. Qed.

Lemma fake_groups_nth : forall nres now qs next i q,
  nth_error qs i = Some q ->
  exists base, nth_error (fake_groups nres now qs next) i
                = Some (map (fake_worker nres now q) (seqN base (N.to_nat (wq_max_sn q)))).
Proof.
  intros nres now. induction qs as [|q0 t IH]; intros next i q H; destruct i; simpl in H; try discriminate.
  - injection H as <-. exists next. reflexivity.
  - exact (IH (next + wq_max_sn q0) i q H).
Qed.

Lemma fake_groups_ids : forall nres now qs next w,
  In w (concat (fake_groups nres now qs next)) -> next <= w_id w.
Proof.
  intros nres now. induction qs as [|q t IH]; intros next w H; simpl in H; [contradiction|].
  apply in_app_or in H. destruct H as [H|H].
  - apply in_map_iff in H. destruct H as (id & <- & Hid). simpl. apply seqN_in in Hid. lia.
  - apply IH in H. lia.
Qed.

Lemma fake_free_res : forall nres now q id, w_free (fake_worker nres now q id) = w_res (fake_worker nres now q id).
Proof. reflexivity. Qed.

Lemma fake_groups_free : forall nres now qs next w,
  In w (concat (fake_groups nres now qs next)) -> w_free w = w_res w.
Proof.
  intros nres now. induction qs as [|q t IH]; intros next w H; simpl in H; [contradiction|].
  apply in_app_or in H. destruct H as [H|H]; [|eapply IH; eauto].
  apply in_map_iff in H. destruct H as (id & <- & _). reflexivity.
Qed.

Lemma placeable_fake_id : forall I nres now q id rq,
  placeable I (fake_worker nres now q id) rq = placeable I (fake_worker nres now q 0) rq.
Proof. reflexivity. Qed.

Lemma cnwq_ok : forall st qs s r,
  compute_new_worker_query st qs s = Ok r ->
  exists bs m, create_task_batches (query_inst st qs) = Ok bs
    /\ query_rows (query_inst st qs) bs = Ok m
    /\ r = {| r_sn := sn_counts (query_inst st qs) bs s (query_groups st qs); r_mn := mn_sort (mn_entries st qs) |}.
Proof.
  intros st qs s r H. unfold compute_new_worker_query in H.
  destruct (create_task_batches (query_inst st qs)) as [bs| |] eqn:E1; simpl in H; try discriminate.
  destruct (query_rows (query_inst st qs) bs) as [m| |] eqn:E2; simpl in H; try discriminate.
  inversion H; subst. exists bs, m. auto.
Qed.

Theorem query_response_length : forall st qs s r,
  compute_new_worker_query st qs s = Ok r -> length (r_sn r) = length qs.
Proof.
  intros st qs s r H. destruct (cnwq_ok _ _ _ _ H) as (bs & m & _ & _ & ->). simpl.
  unfold sn_counts, query_groups. rewrite map_length. apply fake_groups_length.
Qed.

(** the wrapper: an error, the EMPTY answer (scheduling could not finish), or one count per query *)
Theorem new_worker_query_length : forall st qs flag finished s o,
  new_worker_query st qs flag finished s = Ok o ->
  match o with
  | QErr => forallb desc_valid qs = false
  | QResp r => (flag = true /\ finished = false /\ r_sn r = [] /\ r_mn r = []) \/ length (r_sn r) = length qs
  end.
Proof.
  intros st qs flag finished s o H. unfold new_worker_query in H.
  destruct (forallb desc_valid qs) eqn:Ev; simpl in H; [|inversion H; reflexivity].
  destruct flag, finished; simpl in H;
    try (destruct (compute_new_worker_query st qs s) as [r| |] eqn:E; simpl in H; try discriminate;
         inversion H; subst; right; eapply query_response_length; eassumption).
  inversion H; subst. left. auto.
Qed.

Lemma count_nth : forall st qs s r i q,
  compute_new_worker_query st qs s = Ok r -> nth_error qs i = Some q ->
  exists bs m base,
    create_task_batches (query_inst st qs) = Ok bs
    /\ query_rows (query_inst st qs) bs = Ok m
    /\ nth_error (query_groups st qs) i
       = Some (map (fake_worker (i_nres (query_inst st qs)) (i_now (query_inst st qs)) q) (seqN base (N.to_nat (wq_max_sn q))))
    /\ nth_error (r_sn r) i
       = Some (nlen (filter (loaded (query_inst st qs) bs s)
                 (map (fake_worker (i_nres (query_inst st qs)) (i_now (query_inst st qs)) q) (seqN base (N.to_nat (wq_max_sn q)))))).
Proof.
  intros st qs s r i q H Hq. destruct (cnwq_ok _ _ _ _ H) as (bs & m & Hb & Hm & ->).
  destruct (fake_groups_nth (nres_after (qs_nres st) qs) (qs_now st) qs (qs_worker_counter st + 1) i q Hq) as (base & Hn).
  exists bs, m, base. repeat split; try assumption.
  simpl. unfold sn_counts. rewrite nth_error_map. unfold query_groups. rewrite Hn. reflexivity.
Qed.

Lemma nlen_filter_le : forall {A} (f : A -> bool) l, nlen (filter f l) <= nlen l.
Proof.
  intros A f l. unfold nlen. induction l as [|x t IH]; simpl; [lia|]. destruct (f x); simpl; lia.
Qed.

Theorem query_count_le_max : forall st qs s r i q c,
  compute_new_worker_query st qs s = Ok r -> nth_error qs i = Some q -> nth_error (r_sn r) i = Some c ->
  c <= wq_max_sn q.
Proof.
  intros st qs s r i q c H Hq Hc.
  destruct (count_nth _ _ _ _ _ _ H Hq) as (bs & m & base & _ & _ & _ & Hn).
  rewrite Hn in Hc. inversion Hc; subst. etransitivity; [apply nlen_filter_le|].
  unfold nlen. rewrite map_length, seqN_length. lia.
Qed.

Lemma filter_map_none : forall {A B} (f : B -> bool) (g : A -> B) l,
  (forall x, f (g x) = false) -> filter f (map g l) = [].
Proof. intros A B f g l H. induction l as [|x t IH]; [reflexivity|]. cbn [map filter]. rewrite H. exact IH. Qed.

(** a class is a candidate for query [q]: it has waiting tasks and the solver would create a placement
    variable for it on a fake worker of [q] *)
Theorem query_no_candidates_no_demand : forall st qs s r i q,
  compute_new_worker_query st qs s = Ok r -> nth_error qs i = Some q ->
  (forall rq, 0 < waiting_of (query_inst st qs) rq -> class_fits (query_inst st qs) q rq = false) ->
  nth_error (r_sn r) i = Some 0.
Proof.
  intros st qs s r i q H Hq Hno.
  destruct (count_nth _ _ _ _ _ _ H Hq) as (bs & m & base & Hb & _ & _ & Hn).
  rewrite Hn. f_equal.
  rewrite filter_map_none; [reflexivity|]. intros id.
  unfold loaded. apply Bool.not_true_is_false. intros Hx. apply existsb_exists in Hx.
  destruct Hx as (b & Hbin & Hx). apply andb_true_iff in Hx. destruct Hx as [Hp _].
  rewrite placeable_fake_id in Hp.
  pose proof (batches_inv _ _ Hb) as Hinv. rewrite Forall_forall in Hinv.
  destruct (Hinv b Hbin) as (Hs & _ & Hle & _).
  assert (Hw : 0 < waiting_of (query_inst st qs) (b_rq b)) by lia.
  specialize (Hno _ Hw). unfold class_fits in Hno. congruence.
Qed.

(** what [class_fits] says: the query's time limit accepts the class's [min_time] ... *)
Theorem class_fits_time : forall I q rq t,
  class_fits I q rq = true -> wq_time_limit q = Some t -> rc_min_time (class_of I rq) <= t.
Proof.
  intros I q rq t H Ht. unfold class_fits, placeable in H.
  apply andb_true_iff in H. destruct H as [H _]. apply andb_true_iff in H. destruct H as [_ H].
  unfold has_time, fake_worker in H. simpl in H. rewrite Ht in H. lia.
Qed.

(** ... and every amount the class asks for (at least one fraction of an [All] resource) is there in the
    query's descriptor, completed with MAX if the query is partial *)
Theorem class_fits_resources : forall I q rq,
  class_fits I q rq = true ->
  Forall (fun e => snd e <= rv_get (vec_of_desc (full_desc (i_nres I) q)) (fst e)) (min_req I rq).
Proof.
  intros I q rq H. unfold class_fits, placeable in H.
  apply andb_true_iff in H. destruct H as [_ H]. apply capable_res_spec in H. exact H.
Qed.

Theorem class_fits_intro : forall I q rq,
  (forall t, wq_time_limit q = Some t -> rc_min_time (class_of I rq) <= t) ->
  Forall (fun e => snd e <= rv_get (vec_of_desc (full_desc (i_nres I) q)) (fst e)) (min_req I rq) ->
  class_fits I q rq = true.
Proof.
  intros I q rq Ht Hr. unfold class_fits, placeable.
  apply andb_true_iff. split; [apply andb_true_iff; split; [reflexivity|]|apply capable_res_spec; exact Hr].
  unfold has_time, fake_worker. simpl. destruct (wq_time_limit q) as [t|]; [|reflexivity].
  specialize (Ht t eq_refl). lia.
Qed.

Theorem query_only_fake_ids : forall st qs w,
  In w (i_workers (query_inst st qs)) -> qs_worker_counter st < w_id w.
Proof.
  intros st qs w H. simpl in H. unfold query_groups in H. apply fake_groups_ids in H. lia.
Qed.

Theorem mn_accepts_spec : forall mt n q,
  mn_accepts mt n q = true <-> (forall t, wq_time_limit q = Some t -> mt <= t) /\ n <= wq_max_per_alloc q.
Proof.
  intros mt n q. unfold mn_accepts. destruct (wq_time_limit q) as [t|]; split.
  - intros H. split; [intros t' Ht; inversion Ht; subst; lia|lia].
  - intros [H1 H2]. specialize (H1 t eq_refl). lia.
  - intros H. split; [intros t' Ht; discriminate|lia].
  - intros [_ H2]. lia.
Qed.

Lemma find_query_some : forall mt n qs i k,
  find_query mt n qs i = Some k ->
  exists j q, k = i + N.of_nat j /\ nth_error qs j = Some q /\ mn_accepts mt n q = true
    /\ forall j' q', (j' < j)%nat -> nth_error qs j' = Some q' -> mn_accepts mt n q' = false.
Proof.
  intros mt n. induction qs as [|q0 t IH]; intros i k H; simpl in H; [discriminate|].
  destruct (mn_accepts mt n q0) eqn:E.
  - inversion H; subst. exists O, q0. repeat split; [lia|assumption|]. intros j' q' Hj. lia.
  - destruct (IH _ _ H) as (j & q & Hk & Hn & Ha & Hfirst). exists (S j), q.
    repeat split; [lia|assumption|assumption|].
    intros [|j'] q' Hj Hq'; simpl in Hq'; [inversion Hq'; subst; assumption|]. eapply Hfirst; [|eassumption]. lia.
Qed.

Lemma find_query_none : forall mt n qs i,
  find_query mt n qs i = None <-> forall q, In q qs -> mn_accepts mt n q = false.
Proof.
  intros mt n. induction qs as [|q0 t IH]; intros i; simpl.
  - split; [intros _ q []|reflexivity].
  - destruct (mn_accepts mt n q0) eqn:E.
    + split; [discriminate|]. intros H. specialize (H q0 (or_introl eq_refl)). congruence.
    + rewrite IH. split; [intros H q [<-|Hq]; auto|intros H q Hq; apply H; right; assumption].
Qed.

Lemma mn_insert_in : forall x l y, In y (mn_insert x l) <-> y = x \/ In y l.
Proof.
  intros x. induction l as [|z t IH]; intros y; simpl; [intuition|].
  destruct (mn_le x z); simpl; [intuition|]. rewrite IH. intuition.
Qed.

Lemma mn_sort_in : forall l y, In y (mn_sort l) <-> In y l.
Proof.
  induction l as [|x t IH]; intros y; simpl; [tauto|]. rewrite mn_insert_in, IH. intuition.
Qed.

Lemma mn_le_total : forall a b, mn_le a b = false -> mn_le b a = true.
Proof. intros a b. unfold mn_le. lia. Qed.
Lemma mn_le_trans : forall a b c, mn_le a b = true -> mn_le b c = true -> mn_le a c = true.
Proof. intros a b c. unfold mn_le. lia. Qed.

Lemma mn_insert_sorted : forall x l,
  StronglySorted (fun a b => mn_le a b = true) l -> StronglySorted (fun a b => mn_le a b = true) (mn_insert x l).
Proof.
  intros x. induction l as [|y t IH]; intros H; simpl; [constructor; constructor|].
  inversion H as [|? ? Hs Hf]; subst. destruct (mn_le x y) eqn:E.
  - constructor; [assumption|]. constructor; [assumption|].
    eapply Forall_impl; [|exact Hf]. intros c Hc. eapply mn_le_trans; eassumption.
  - constructor; [apply IH; assumption|]. apply Forall_forall. intros c Hc. apply (proj1 (mn_insert_in _ _ _)) in Hc.
    destruct Hc as [->|Hc]; [apply mn_le_total; assumption|]. rewrite Forall_forall in Hf. auto.
Qed.

(** the order [sort_unstable_by_key] promises *)
Definition mn_key_le (a b : mn_entry) : Prop :=
  mn_type a < mn_type b \/ (mn_type a = mn_type b /\ mn_per_alloc a <= mn_per_alloc b).

Lemma mn_sort_sorted : forall l, StronglySorted mn_key_le (mn_sort l).
Proof.
  intros l.
  assert (H : StronglySorted (fun a b => mn_le a b = true) (mn_sort l)).
  { induction l as [|x t IH]; simpl; [constructor|]. apply mn_insert_sorted. assumption. }
  induction H as [|a t Hs IH Hf]; constructor; [assumption|].
  eapply Forall_impl; [|exact Hf]. intros b Hb. unfold mn_le in Hb. unfold mn_key_le. lia.
Qed.

Lemma mn_entries_in : forall st qs e,
  In e (mn_entries st qs) <->
  exists k q_, nth_error (qs_queues st) k = Some q_ /\ In e (mn_entry_of st qs (N.of_nat k) q_).
Proof.
  intros st qs e. unfold mn_entries. rewrite in_concat. split.
  - intros (l & Hl & He). apply mapi_from_in in Hl. destruct Hl as (k & a & Hk & ->). exists k, a. auto.
  - intros (k & q_ & Hk & He). eexists. split; [|exact He]. apply mapi_from_in. exists k, q_. auto.
Qed.

(** every entry of the list is justified ... *)
Theorem mn_entry_sound : forall st qs s r e,
  compute_new_worker_query st qs s = Ok r -> In e (r_mn r) ->
  exists k q_ j q,
    nth_error (qs_queues st) k = Some q_ /\ is_mn st (N.of_nat k) = true
    /\ mn_per_alloc e = nodes_of st (N.of_nat k)
    /\ mn_max_allocs e = queue_size q_
    /\ mn_type e = N.of_nat j /\ nth_error qs j = Some q
    /\ mn_accepts (class_min_time st (N.of_nat k)) (nodes_of st (N.of_nat k)) q = true
    /\ (forall j' q', (j' < j)%nat -> nth_error qs j' = Some q' ->
          mn_accepts (class_min_time st (N.of_nat k)) (nodes_of st (N.of_nat k)) q' = false).
Proof.
  intros st qs s r e H He. destruct (cnwq_ok _ _ _ _ H) as (bs & m & _ & _ & ->). simpl in He.
  apply (proj1 (mn_sort_in _ _)) in He. apply (proj1 (mn_entries_in _ _ _)) in He. destruct He as (k & q_ & Hk & He).
  unfold mn_entry_of in He. destruct (is_mn st (N.of_nat k)) eqn:Emn; [|contradiction].
  destruct (find_query _ _ qs 0) as [t|] eqn:Ef; [|contradiction].
  destruct He as [<-|[]]. simpl.
  destruct (find_query_some _ _ _ _ _ Ef) as (j & q & Ht & Hn & Ha & Hfirst).
  exists k, q_, j, q. repeat split; try assumption; try lia.
Qed.

(** ... every multi-node class with an admissible query has its entry, for the FIRST such query ... *)
Theorem mn_entry_complete : forall st qs s r k q_ j q,
  compute_new_worker_query st qs s = Ok r ->
  nth_error (qs_queues st) k = Some q_ -> is_mn st (N.of_nat k) = true ->
  nth_error qs j = Some q ->
  mn_accepts (class_min_time st (N.of_nat k)) (nodes_of st (N.of_nat k)) q = true ->
  (forall j' q', (j' < j)%nat -> nth_error qs j' = Some q' ->
     mn_accepts (class_min_time st (N.of_nat k)) (nodes_of st (N.of_nat k)) q' = false) ->
  In {| mn_type := N.of_nat j; mn_per_alloc := nodes_of st (N.of_nat k); mn_max_allocs := queue_size q_ |} (r_mn r).
Proof.
  intros st qs s r k q_ j q H Hk Hmn Hq Ha Hfirst.
  destruct (cnwq_ok _ _ _ _ H) as (bs & m & _ & _ & ->). simpl.
  apply (proj2 (mn_sort_in _ _)). apply (proj2 (mn_entries_in _ _ _)). exists k, q_. split; [assumption|].
  unfold mn_entry_of. rewrite Hmn.
  destruct (find_query _ _ qs 0) as [t|] eqn:Ef.
  - destruct (find_query_some _ _ _ _ _ Ef) as (j2 & q2 & Ht & Hn2 & Ha2 & Hfirst2).
    assert (j2 = j).
    { destruct (Nat.lt_trichotomy j2 j) as [Hlt|[Heq|Hgt]]; [|assumption|].
      - specialize (Hfirst _ _ Hlt Hn2). congruence.
      - specialize (Hfirst2 _ _ Hgt Hq). congruence. }
    subst. left. f_equal; lia.
  - rewrite find_query_none in Ef. apply nth_error_In in Hq. specialize (Ef _ Hq). congruence.
Qed.

(** ... and a multi-node class no query accepts contributes nothing *)
Theorem mn_no_admissible_no_entry : forall st qs rq q_,
  (forall q, In q qs -> mn_accepts (class_min_time st rq) (nodes_of st rq) q = false) ->
  mn_entry_of st qs rq q_ = [].
Proof.
  intros st qs rq q_ H. unfold mn_entry_of. destruct (is_mn st rq); [|reflexivity].
  apply (find_query_none _ _ qs 0) in H. rewrite H. reflexivity.
Qed.

Theorem mn_sorted : forall st qs s r,
  compute_new_worker_query st qs s = Ok r -> StronglySorted mn_key_le (r_mn r).
Proof.
  intros st qs s r H. destruct (cnwq_ok _ _ _ _ H) as (bs & m & _ & _ & ->). simpl. apply mn_sort_sorted.
Qed.
