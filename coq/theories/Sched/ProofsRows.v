(** Row-system theorems of component [sched]:
    - [feasible_no_overbook] / [C05_feasible_no_overbook_thm] (C05, row-system half): every feasible point
      of the exact row system, mapped to tasks by any dispatch [mapping_ok] accepts, never overbooks a
      worker and places tasks only where the request fits the free resources, is not blocked and has
      enough remaining time;
    - [create_task_batches_nodup]: one batch per request class. *)
From HQ Require Import Base.Prelude Gen.Consts Sched.Model.
Require Import ZifyBool ZifyN ZifyNat.
Open Scope N_scope.
Arguments N.add : simpl never. Arguments N.sub : simpl never. Arguments N.mul : simpl never.
Arguments N.eqb : simpl never. Arguments N.ltb : simpl never. Arguments N.leb : simpl never.
Arguments N.of_nat : simpl never. Arguments N.to_nat : simpl never. Arguments N.div : simpl never.
Arguments Z.of_N : simpl never. Arguments Z.mul : simpl never. Arguments Z.add : simpl never.

Definition amount (rq : request) (r : N) : N :=
  fold_right (fun e acc => (if fst e =? r then snd e else 0) + acc) 0 rq.

Definition request_wf (rq : request) : Prop := Forall (fun e => 0 < snd e) rq.

Lemma rv_get_out : forall v r, (length v <= N.to_nat r)%nat -> rv_get v r = 0.
Proof. intros. unfold rv_get. apply nth_overflow. assumption. Qed.

Lemma rv_set_length : forall v r x, length (rv_set v r x) = length v.
Proof. induction v as [|h t IH]; intros [|r] x; simpl; auto. Qed.

Lemma rv_get_set : forall v r x r', (N.to_nat r < length v)%nat ->
  rv_get (rv_set v (N.to_nat r) x) r' = if r' =? r then x else rv_get v r'.
Proof.
  intros v r x r' H. unfold rv_get.
  destruct (N.eqb_spec r' r) as [->|Hne].
  - revert v H. generalize (N.to_nat r). intros n. induction n as [|n IH]; intros [|h t] H; simpl in *; try lia; auto.
    apply IH. lia.
  - assert (Hn : N.to_nat r' <> N.to_nat r) by lia. revert Hn H. generalize (N.to_nat r) (N.to_nat r'). 
    intros n n'. revert v n'. induction n as [|n IH]; intros [|h t] [|n'] Hn H; simpl in *; try lia; auto.
    apply IH; lia.
Qed.

Lemma capable_res_spec : forall v rq, capable_res v rq = true <-> Forall (fun e => snd e <= rv_get v (fst e)) rq.
Proof.
  intros v rq. unfold capable_res. rewrite forallb_forall, Forall_forall. split; intros H e He; specialize (H e He); lia.
Qed.

Definition req_ok (len : nat) (rq : request) : Prop :=
  Forall (fun e => 0 < snd e \/ (N.to_nat (fst e) < len)%nat) rq.

Lemma request_wf_ok : forall len rq, request_wf rq -> req_ok len rq.
Proof. intros len rq H. eapply Forall_impl; [|exact H]. intros e He. left. exact He. Qed.

Lemma rv_sub_checked_ok : forall rq v,
  req_ok (length v) rq -> (forall r, amount rq r <= rv_get v r) ->
  exists v', rv_sub_checked v rq = Some v' /\ length v' = length v
             /\ forall r, rv_get v' r = rv_get v r - amount rq r.
Proof.
  induction rq as [|[r a] t IH]; intros v Hwf H; simpl.
  - exists v. repeat split. intros r. unfold amount. simpl. lia.
  - inversion Hwf as [|? ? Ha Hwf']; subst. simpl in Ha.
    pose proof (H r) as Hr. unfold amount in Hr. simpl in Hr. rewrite N.eqb_refl in Hr. fold (amount t r) in Hr.
    assert (Hin : (N.to_nat r < length v)%nat).
    { destruct Ha as [Ha|Ha]; [|assumption].
      destruct (Nat.ltb_spec (N.to_nat r) (length v)); [assumption|]. rewrite rv_get_out in Hr by assumption. lia. }
    destruct (Nat.ltb_spec (N.to_nat r) (length v)) as [_|]; [|lia].
    destruct (N.leb_spec a (rv_get v r)) as [_|]; [|lia]. simpl.
    destruct (IH (rv_set v (N.to_nat r) (rv_get v r - a))) as (v' & E & L & G).
    { unfold req_ok. rewrite rv_set_length. exact Hwf'. }
    { intros r'. rewrite rv_get_set by assumption. specialize (H r'). unfold amount in H. simpl in H. fold (amount t r') in H.
      destruct (N.eqb_spec r' r) as [->|Hne].
      - rewrite N.eqb_refl in H. lia.
      - destruct (N.eqb_spec r r'); [congruence|]. lia. }
    exists v'. split; [assumption|]. split; [rewrite L; apply rv_set_length|].
    intros r'. rewrite G, rv_get_set by assumption. unfold amount. simpl. fold (amount t r').
    destruct (N.eqb_spec r' r) as [->|Hne].
    + rewrite N.eqb_refl. lia.
    + destruct (N.eqb_spec r r'); [congruence|]. lia.
Qed.

Definition demand (I : inst) (rqs : list N) (r : N) : N :=
  fold_right (fun rq acc => amount (req_of I rq) r + acc) 0 rqs.

Lemma sub_all_ok : forall I rqs v,
  (forall rq, In rq rqs -> req_ok (length v) (req_of I rq)) ->
  (forall r, demand I rqs r <= rv_get v r) ->
  exists v', sub_all I v rqs = Some v' /\ forall r, rv_get v' r = rv_get v r - demand I rqs r.
Proof.
  induction rqs as [|rq t IH]; intros v Hwf H; simpl.
  - exists v. split; [reflexivity|]. intros r. unfold demand. simpl. lia.
  - destruct (rv_sub_checked_ok (req_of I rq) v (Hwf rq (or_introl eq_refl))) as (v1 & E & L1 & G).
    { intros r. specialize (H r). unfold demand in H. simpl in H. lia. }
    rewrite E. destruct (IH v1) as (v' & E' & G').
    { intros rq' Hin. rewrite L1. apply Hwf. right. assumption. }
    { intros r. rewrite G. specialize (H r). unfold demand in H. simpl in H. fold (demand I t r) in H. lia. }
    exists v'. split; [assumption|]. intros r. rewrite G', G. unfold demand. simpl. fold (demand I t r). lia.
Qed.


Lemma mapi_from_in : forall {A B} (f : nat -> A -> B) l i x,
  In x (mapi_from f l i) <-> exists k a, nth_error l k = Some a /\ x = f (i + k)%nat a.
Proof.
  intros A B f. induction l as [|h t IH]; intros i x; simpl.
  - split; [contradiction|]. intros (k & a & H & _). destruct k; discriminate.
  - rewrite IH. split.
    + intros [<-|(k & a & H & ->)].
      * exists O, h. split; [reflexivity|]. f_equal. lia.
      * exists (S k), a. split; [assumption|]. f_equal. lia.
    + intros ([|k] & a & H & ->); simpl in H.
      * inversion H; subst. left. f_equal. lia.
      * right. exists k, a. split; [assumption|]. f_equal. lia.
Qed.

Lemma seqN_in : forall n start x, In x (seqN start n) <-> start <= x < start + N.of_nat n.
Proof.
  induction n as [|n IH]; intros start x; simpl; [lia|]. rewrite IH. lia.
Qed.

Lemma worker_entries_in : forall I bs m w, milp_of I bs = Ok m -> In w (i_workers I) ->
  exists i, forall e, In e (worker_entries I bs i w) -> In e m.
Proof.
  intros I bs m w Hm Hw. unfold milp_of in Hm.
  destruct (all_items I bs) as [its| |]; simpl in Hm; try discriminate. inversion Hm; subst.
  apply In_nth_error in Hw. destruct Hw as (k & Hk).
  exists (N.of_nat (0 + k)). intros e He. apply in_or_app. left. apply in_concat.
  exists (worker_entries I bs (N.of_nat (0 + k)) w). split; [|assumption].
  apply mapi_from_in. exists k, w. auto.
Qed.

Definition res_terms (I : inst) (bs : list batch) (w : worker) (r : N) : list (var * Z) :=
  concat (map (fun b =>
      match placement_kind I w b with
      | PX => concat (map (fun e => if fst e =? r then [(VX (w_id w) (b_rq b), z (snd e))] else []) (req_of (inst_on I w) (b_rq b)))
      | PR => if 0 <? rv_get (w_free w) r then [(VR (w_id w) (b_rq b), z (rv_get (w_free w) r))] else []
      | PNone => []
      end) bs).

Lemma res_row_in : forall I bs i w r, r < i_nres I -> res_terms I bs w r <> [] ->
  In (ERow {| r_kind := RRes (w_id w) r; r_terms := res_terms I bs w r; r_le := true; r_bound := z (rv_get (w_free w) r) |})
     (worker_entries I bs i w).
Proof.
  intros I bs i w r Hr Hne. unfold worker_entries. apply in_or_app. right.
  apply in_concat. eexists. split.
  - apply in_map_iff. exists r. split; [reflexivity|]. apply seqN_in. lia.
  - fold (res_terms I bs w r). destruct (res_terms I bs w r) eqn:E; [congruence|]. left. reflexivity.
Qed.

Lemma var_x_in : forall I bs i w b, In b bs -> placement_kind I w b = PX ->
  In (EVar (VX (w_id w) (b_rq b)) KNat (z (x_weight (inst_on I w) i (b_rq b)))) (worker_entries I bs i w).
Proof.
  intros I bs i w b Hb Hk. unfold worker_entries. apply in_or_app. left.
  apply in_concat. eexists. split; [apply in_map_iff; exists b; split; [reflexivity|assumption]|].
  rewrite Hk. left. reflexivity.
Qed.

Lemma var_r_in : forall I bs i w b, In b bs -> placement_kind I w b = PR ->
  In (EVar (VR (w_id w) (b_rq b)) KBool (z (r_weight I i))) (worker_entries I bs i w).
Proof.
  intros I bs i w b Hb Hk. unfold worker_entries. apply in_or_app. left.
  apply in_concat. eexists. split; [apply in_map_iff; exists b; split; [reflexivity|assumption]|].
  rewrite Hk. left. reflexivity.
Qed.

Lemma feasible_in : forall m s e, feasible m s = true -> In e m -> entry_ok s e = true.
Proof. intros m s e H Hin. unfold feasible in H. rewrite forallb_forall in H. auto. Qed.

Definition lhs (s : sol) (ts : list (var * Z)) : Z := fold_right (fun t acc => (snd t * s (fst t) + acc)%Z) 0%Z ts.

Lemma lhs_app : forall s a b, lhs s (a ++ b) = (lhs s a + lhs s b)%Z.
Proof. intros s a b. induction a as [|t a IH]; simpl; [reflexivity|]. rewrite IH. lia. Qed.

Lemma lhs_x_entries : forall s v rq r,
  lhs s (concat (map (fun e : N * N => if fst e =? r then [(v, z (snd e))] else []) rq)) = (z (amount rq r) * s v)%Z.
Proof.
  intros s v rq r. induction rq as [|e t IH].
  - reflexivity.
  - cbn [map concat]. rewrite lhs_app, IH.
    replace (amount (e :: t) r) with ((if fst e =? r then snd e else 0) + amount t r) by reflexivity.
    unfold z. rewrite N2Z.inj_add. destruct (N.eqb_spec (fst e) r); cbn [lhs fold_right fst snd]; ring.
Qed.

Definition placed_amount (I : inst) (bs : list batch) (s : sol) (w : worker) (r : N) : Z :=
  fold_right (fun b acc =>
    ((match placement_kind I w b with PX => z (amount (req_of (inst_on I w) (b_rq b)) r) * s (VX (w_id w) (b_rq b)) | _ => 0 end) + acc)%Z)
    0%Z bs.

Lemma res_row_bound : forall I bs m s w r,
  milp_of I bs = Ok m -> feasible m s = true -> In w (i_workers I) -> r < i_nres I ->
  (placed_amount I bs s w r <= z (rv_get (w_free w) r))%Z.
Proof.
  intros I bs m s w r Hm Hf Hw Hr.
  destruct (worker_entries_in I bs m w Hm Hw) as (i & Hin).
  assert (Hx : forall b, In b bs -> placement_kind I w b = PX -> (0 <= s (VX (w_id w) (b_rq b)))%Z).
  { intros b Hb Hk. pose proof (feasible_in m s _ Hf (Hin _ (var_x_in I bs i w b Hb Hk))) as H. simpl in H. lia. }
  assert (Hrv : forall b, In b bs -> placement_kind I w b = PR -> (0 <= s (VR (w_id w) (b_rq b)))%Z).
  { intros b Hb Hk. pose proof (feasible_in m s _ Hf (Hin _ (var_r_in I bs i w b Hb Hk))) as H. simpl in H. lia. }
  assert (Hle : (placed_amount I bs s w r <= lhs s (res_terms I bs w r))%Z).
  { unfold placed_amount, res_terms. clear Hin Hm Hf.
    induction bs as [|b t IH]; simpl; [lia|]. rewrite lhs_app.
    assert (IH' := IH (fun b' Hb' => Hx b' (or_intror Hb')) (fun b' Hb' => Hrv b' (or_intror Hb'))).
    destruct (placement_kind I w b) eqn:Hk.
    - rewrite lhs_x_entries. lia.
    - specialize (Hrv b (or_introl eq_refl) Hk).
      assert (Hnn : (0 <= z (rv_get (w_free w) r) * s (VR (w_id w) (b_rq b)))%Z)
        by (apply Z.mul_nonneg_nonneg; [unfold z; lia|assumption]).
      destruct (0 <? rv_get (w_free w) r); cbn [lhs fold_right fst snd]; lia.
    - simpl. lia. }
  destruct (res_terms I bs w r) eqn:E.
  - simpl in Hle. unfold z. lia.
  - assert (Hne : res_terms I bs w r <> []) by (rewrite E; discriminate).
    pose proof (feasible_in m s _ Hf (Hin _ (res_row_in I bs i w r Hr Hne))) as Hrow.
    simpl in Hrow. unfold row_ok, row_lhs in Hrow. simpl in Hrow. fold (lhs s (res_terms I bs w r)) in Hrow.
    rewrite E in *. lia.
Qed.


Definition rqs_on (I : inst) (d : dispatch) (wid : N) : list N :=
  concat (map (fun p => if snd p =? wid then
                          match find_task (ready_tasks I) (fst p) with Some t => [t_rq t] | None => [] end
                        else []) d).

Lemma free_after_eq : forall I d w, free_after I d w = sub_all (inst_on I w) (w_free w) (rqs_on I d (w_id w)).
Proof. reflexivity. Qed.

Lemma sum_indicator : forall (f : N -> N) l x, NoDup l -> In x l ->
  fold_right (fun y acc => (if x =? y then f y else 0) + acc) 0 l = f x.
Proof.
  induction l as [|y t IH]; intros x Hnd Hin; simpl; [contradiction|].
  inversion Hnd as [|? ? Hny Hnd']; subst.
  destruct Hin as [->|Hin].
  - rewrite N.eqb_refl.
    assert (Hz : fold_right (fun y acc => (if x =? y then f y else 0) + acc) 0 t = 0).
    { clear - Hny. induction t as [|y t IH]; simpl; [reflexivity|].
      destruct (N.eqb_spec x y) as [->|_]; [exfalso; apply Hny; left; reflexivity|].
      rewrite IH; [lia|]. intros H. apply Hny. right. assumption. }
    rewrite Hz. lia.
  - destruct (N.eqb_spec x y) as [->|_]; [contradiction|]. rewrite (IH x Hnd' Hin). lia.
Qed.

Lemma sum_zero_indicator : forall (f : N -> N) l, fold_right (fun y acc => 0 * f y + acc) 0 l = 0.
Proof. induction l as [|y t IH]; simpl; [reflexivity|]. rewrite IH. lia. Qed.

Definition weighted (I : inst) (d : dispatch) (wid r : N) (RQ : list N) : N :=
  fold_right (fun rq acc => count_on I d wid rq * amount (req_of I rq) r + acc) 0 RQ.

Lemma count_on_cons : forall I p d wid rq,
  count_on I (p :: d) wid rq =
  (if (snd p =? wid) && match find_task (ready_tasks I) (fst p) with Some t => t_rq t =? rq | None => false end
   then 1 else 0) + count_on I d wid rq.
Proof.
  intros. unfold count_on. simpl.
  destruct ((snd p =? wid) && match find_task (ready_tasks I) (fst p) with Some t => t_rq t =? rq | None => false end);
    unfold nlen; simpl; lia.
Qed.

Lemma demand_count : forall I wid RQ r d, NoDup RQ ->
  (forall rq, In rq (rqs_on I d wid) -> In rq RQ) ->
  demand I (rqs_on I d wid) r = weighted I d wid r RQ.
Proof.
  intros I wid RQ r d Hnd. induction d as [|p d IH]; intros Hin.
  - unfold rqs_on, demand, weighted. simpl. clear. induction RQ as [|rq t IHt]; simpl; [reflexivity|].
    rewrite <- IHt. unfold count_on, nlen. simpl. lia.
  - unfold rqs_on in *. simpl in *.
    assert (Hw : forall c : unit, weighted I (p :: d) wid r RQ =
              fold_right (fun rq acc => (if (snd p =? wid) && match find_task (ready_tasks I) (fst p) with Some t => t_rq t =? rq | None => false end then amount (req_of I rq) r else 0) + acc) 0 RQ
              + weighted I d wid r RQ).
    { intros _. unfold weighted. clear. induction RQ as [|rq t IHt]; simpl; [reflexivity|].
      rewrite IHt, count_on_cons.
      destruct ((snd p =? wid) && match find_task (ready_tasks I) (fst p) with Some t0 => t_rq t0 =? rq | None => false end); lia. }
    rewrite (Hw tt). clear Hw.
    destruct (snd p =? wid) eqn:Ew; simpl.
    + destruct (find_task (ready_tasks I) (fst p)) as [t|] eqn:Ef; simpl in *.
      * unfold demand. simpl. fold (demand I (concat (map (fun p0 => if snd p0 =? wid then match find_task (ready_tasks I) (fst p0) with Some t0 => [t_rq t0] | None => [] end else []) d)) r).
        rewrite IH by (intros rq H; apply Hin; right; assumption).
        rewrite (sum_indicator (fun rq => amount (req_of I rq) r) RQ (t_rq t) Hnd (Hin _ (or_introl eq_refl))). lia.
      * rewrite IH by assumption.
        assert (Hz : fold_right (fun rq acc => (if false then amount (req_of I rq) r else 0) + acc) 0 RQ = 0)
          by (clear; induction RQ; simpl; lia).
        rewrite Hz. lia.
    + rewrite IH by assumption.
      assert (Hz : fold_right (fun rq acc => (if false then amount (req_of I rq) r else 0) + acc) 0 RQ = 0)
        by (clear; induction RQ; simpl; lia).
      rewrite Hz. lia.
Qed.

Record inst_wf (I : inst) : Prop := {
  wf_ids : NoDup (map w_id (i_workers I));
  wf_req : forall c, In c (i_classes I) ->
           request_wf (rc_entries c) /\ Forall (fun e => fst e < i_nres I) (rc_entries c);
  wf_all : forall c, In c (i_classes I) -> Forall (fun r => r < i_nres I) (rc_all c)
}.

Lemma req_of_wf : forall I rq, inst_wf I ->
  request_wf (req_of I rq) /\ Forall (fun e => fst e < i_nres I) (req_of I rq).
Proof.
  intros I rq Hwf. unfold req_of, class_of.
  destruct (nth_in_or_default (N.to_nat rq) (i_classes I) {| rc_entries := []; rc_min_time := 0; rc_all := [] |}) as [Hin | ->].
  - apply (wf_req I Hwf). assumption.
  - simpl. split; constructor.
Qed.

(** the demand of a class on a worker ([All] entries resolved to the worker's total) *)
Lemma class_of_on : forall I w rq, class_of (inst_on I w) rq = class_on (w_res w) (class_of I rq).
Proof.
  intros I w rq. unfold class_of. cbn [inst_on i_classes].
  change {| rc_entries := []; rc_min_time := 0; rc_all := [] |}
    with (class_on (w_res w) {| rc_entries := []; rc_min_time := 0; rc_all := [] |}) at 1.
  apply map_nth.
Qed.

Lemma req_on_eq : forall I w rq,
  req_of (inst_on I w) rq = req_of I rq ++ map (fun r => (r, rv_get (w_res w) r)) (rc_all (class_of I rq)).
Proof. intros. unfold req_of. rewrite class_of_on. reflexivity. Qed.

Lemma class_all_bound : forall I rq, inst_wf I -> Forall (fun r => r < i_nres I) (rc_all (class_of I rq)).
Proof.
  intros I rq Hwf. unfold class_of.
  destruct (nth_in_or_default (N.to_nat rq) (i_classes I) {| rc_entries := []; rc_min_time := 0; rc_all := [] |}) as [Hin | ->].
  - apply (wf_all I Hwf). assumption.
  - constructor.
Qed.

Lemma req_on_bound : forall I w rq, inst_wf I -> Forall (fun e => fst e < i_nres I) (req_of (inst_on I w) rq).
Proof.
  intros I w rq Hwf. rewrite req_on_eq. apply Forall_app. split; [apply req_of_wf; assumption|].
  pose proof (class_all_bound I rq Hwf) as Ha. induction Ha; simpl; constructor; auto.
Qed.

Lemma placeable_req_ok : forall I w rq, inst_wf I -> placeable I w rq = true ->
  req_ok (length (w_free w)) (req_of (inst_on I w) rq).
Proof.
  intros I w rq Hwf Hp. rewrite req_on_eq. apply Forall_app. split.
  - apply request_wf_ok. apply req_of_wf. assumption.
  - unfold placeable in Hp. apply andb_true_iff in Hp. destruct Hp as [_ Hc].
    unfold min_req in Hc. apply capable_res_spec in Hc. apply Forall_app in Hc. destruct Hc as [_ Hc].
    induction (rc_all (class_of I rq)) as [|r t IH]; simpl; [constructor|].
    inversion Hc as [|? ? H1 Ht]; subst. constructor; [|apply IH; assumption].
    right. simpl in *. destruct (Nat.ltb_spec (N.to_nat r) (length (w_free w))); [assumption|].
    rewrite rv_get_out in H1 by assumption. lia.
Qed.

Lemma amount_out : forall rq r n, Forall (fun e => fst e < n) rq -> n <= r -> amount rq r = 0.
Proof.
  induction rq as [|e t IH]; intros r n H Hr; [reflexivity|]. inversion H; subst.
  unfold amount. simpl. fold (amount t r). rewrite (IH r n) by assumption.
  destruct (N.eqb_spec (fst e) r); lia.
Qed.

Lemma placement_px : forall I w b, placement_kind I w b = PX <-> placeable I w (b_rq b) = true.
Proof.
  intros I w b. unfold placement_kind. destruct (placeable I w (b_rq b)); [tauto|].
  destruct (b_blk b && capable I w (b_rq b)); split; discriminate.
Qed.

Lemma has_x_placeable : forall I bs w b, In b bs -> has_x I bs w (b_rq b) = placeable I w (b_rq b).
Proof.
  intros I bs w b Hb. unfold has_x. destruct (placeable I w (b_rq b)) eqn:E.
  - apply existsb_exists. exists b. split; [assumption|]. rewrite N.eqb_refl. simpl.
    apply placement_px in E. rewrite E. reflexivity.
  - apply Bool.not_true_is_false. intros H. apply existsb_exists in H. destruct H as (b' & Hb' & H).
    apply andb_true_iff in H. destruct H as [H1 H2]. apply N.eqb_eq in H1.
    destruct (placement_kind I w b') eqn:Ek; try discriminate.
    apply placement_px in Ek. rewrite H1 in Ek. congruence.
Qed.

Lemma weighted_placed : forall I (s : sol) d w r l,
  (forall b, In b l -> count_on I d (w_id w) (b_rq b) = if placeable I w (b_rq b) then sol_x s (w_id w) (b_rq b) else 0) ->
  (forall b, In b l -> placement_kind I w b = PX -> (0 <= s (VX (w_id w) (b_rq b)))%Z) ->
  z (weighted (inst_on I w) d (w_id w) r (map b_rq l)) = placed_amount I l s w r.
Proof.
  intros I s d w r. unfold weighted, placed_amount. induction l as [|b t IH]; intros Hcnt Hx; [reflexivity|].
  cbn [map fold_right]. unfold z in *. rewrite N2Z.inj_add, N2Z.inj_mul.
  rewrite IH; [|intros; apply Hcnt; right; assumption|intros; apply Hx; [right|]; assumption].
  change (count_on (inst_on I w) d (w_id w) (b_rq b)) with (count_on I d (w_id w) (b_rq b)).
  rewrite (Hcnt b (or_introl eq_refl)).
  destruct (placement_kind I w b) eqn:Ek.
  - pose proof (proj1 (placement_px I w b) Ek) as Hp. rewrite Hp.
    unfold sol_x. rewrite Z2N.id by (apply Hx; [left; reflexivity|assumption]). ring.
  - assert (Hp : placeable I w (b_rq b) = false).
    { destruct (placeable I w (b_rq b)) eqn:E; [|reflexivity]. apply placement_px in E. congruence. }
    rewrite Hp. simpl. ring.
  - assert (Hp : placeable I w (b_rq b) = false).
    { destruct (placeable I w (b_rq b)) eqn:E; [|reflexivity]. apply placement_px in E. congruence. }
    rewrite Hp. simpl. ring.
Qed.

(** * C05, row-system half: a feasible point of the row system never overbooks a worker, and tasks are
      placed only where the request fits the free resources, is not blocked and has enough time *)
Theorem feasible_no_overbook : forall I bs m s d,
  inst_wf I -> NoDup (map b_rq bs) ->
  milp_of I bs = Ok m -> feasible m s = true -> mapping_ok I bs s d = true ->
  forall w, In w (i_workers I) ->
    (exists v, free_after I d w = Some v
               /\ forall r, rv_get v r = rv_get (w_free w) r - demand (inst_on I w) (rqs_on I d (w_id w)) r)
    /\ (forall r, demand (inst_on I w) (rqs_on I d (w_id w)) r <= rv_get (w_free w) r)
    /\ (forall rq, In rq (rqs_on I d (w_id w)) -> placeable I w rq = true).
Proof.
  intros I bs m s d Hwf Hnd Hm Hf Hmap w Hw.
  unfold mapping_ok in Hmap. apply andb_true_iff in Hmap. destruct Hmap as [Hcounts Hcls].
  rewrite forallb_forall in Hcounts, Hcls.
  assert (Hin : forall rq, In rq (rqs_on I d (w_id w)) -> In rq (map b_rq bs)).
  { intros rq H. unfold rqs_on in H. apply in_concat in H. destruct H as (l & Hl & Hrq).
    apply in_map_iff in Hl. destruct Hl as (p & <- & Hp).
    destruct (snd p =? w_id w); [|contradiction].
    specialize (Hcls p Hp). destruct (find_task (ready_tasks I) (fst p)) as [t|]; [|contradiction].
    destruct Hrq as [<-|[]]. apply existsb_exists in Hcls. destruct Hcls as (b & Hb & E).
    apply N.eqb_eq in E. rewrite <- E. apply in_map. assumption. }
  assert (Hcnt : forall b, In b bs ->
            count_on I d (w_id w) (b_rq b) = if placeable I w (b_rq b) then sol_x s (w_id w) (b_rq b) else 0).
  { intros b Hb. specialize (Hcounts b Hb).
    destruct (take_tasks _ _) as [[taken q']| |]; try discriminate.
    apply andb_true_iff in Hcounts. destruct Hcounts as [_ Hc]. rewrite forallb_forall in Hc.
    specialize (Hc w Hw). apply N.eqb_eq in Hc. rewrite Hc, (has_x_placeable I bs w b Hb). reflexivity. }
  assert (Hpl : forall rq, In rq (rqs_on I d (w_id w)) -> placeable I w rq = true).
  { intros rq Hrq. pose proof (Hin rq Hrq) as Hb. apply in_map_iff in Hb. destruct Hb as (b & <- & Hb).
    specialize (Hcnt b Hb). destruct (placeable I w (b_rq b)); [reflexivity|].
    (* count = 0 contradicts the task being there *)
    exfalso. clear - Hrq Hcnt. unfold rqs_on in Hrq. unfold count_on in Hcnt.
    apply in_concat in Hrq. destruct Hrq as (l & Hl & Hrq). apply in_map_iff in Hl. destruct Hl as (p & <- & Hp).
    destruct (snd p =? w_id w) eqn:Ew; [|contradiction].
    destruct (find_task (ready_tasks I) (fst p)) as [t|] eqn:Ef; [|contradiction]. destruct Hrq as [E|[]].
    assert (Hf : In p (filter (fun p0 => (snd p0 =? w_id w) && match find_task (ready_tasks I) (fst p0) with Some t0 => t_rq t0 =? b_rq b | None => false end) d)).
    { apply filter_In. split; [assumption|]. rewrite Ew, Ef, E, N.eqb_refl. reflexivity. }
    destruct (filter _ d); [contradiction|]. unfold nlen in Hcnt. simpl in Hcnt. lia. }
  (* demand (an [All] entry = the worker's total) = sum over the batches of count * amount <= free (resource row) *)
  assert (Hdem : forall r, demand (inst_on I w) (rqs_on I d (w_id w)) r <= rv_get (w_free w) r).
  { intros r. destruct (N.ltb_spec r (i_nres I)) as [Hr|Hr].
    - pose proof (demand_count (inst_on I w) (w_id w) (map b_rq bs) r d Hnd Hin) as Hdc.
      change (rqs_on (inst_on I w) d (w_id w)) with (rqs_on I d (w_id w)) in Hdc. rewrite Hdc.
      pose proof (res_row_bound I bs m s w r Hm Hf Hw Hr) as Hb.
      assert (Heq : z (weighted (inst_on I w) d (w_id w) r (map b_rq bs)) = placed_amount I bs s w r).
      { apply weighted_placed; [assumption|].
        intros b Hb' Hk. destruct (worker_entries_in I bs m w Hm Hw) as (i & Hi).
        pose proof (feasible_in m s _ Hf (Hi _ (var_x_in I bs i w b Hb' Hk))) as H. simpl in H. lia. }
      unfold z in *. lia.
    - assert (Hz : demand (inst_on I w) (rqs_on I d (w_id w)) r = 0).
      { generalize (rqs_on I d (w_id w)). intros l. induction l as [|rq t IH]; [reflexivity|].
        unfold demand. simpl. fold (demand (inst_on I w) t r). rewrite IH.
        rewrite (amount_out _ r (i_nres I)); [lia|apply req_on_bound; assumption|lia]. }
      rewrite Hz. lia. }
  split; [|split; assumption].
  rewrite free_after_eq. apply sub_all_ok; [|assumption].
  intros rq Hrq. apply placeable_req_ok; [assumption|]. apply Hpl. assumption.
Qed.


Definition rqs_of (st : bstate) : list N := map (fun e => b_rq (fst e)) st.

Lemma map_at_rqs : forall f st i, (forall e, b_rq (fst (f e)) = b_rq (fst e)) -> rqs_of (map_at f st i) = rqs_of st.
Proof.
  intros f st. induction st as [|e t IH]; intros i Hf; destruct i; simpl; auto; unfold rqs_of in *; simpl; f_equal; auto.
Qed.

Lemma mapi_from_rqs : forall (f : nat -> batch * list (N * N) -> batch * list (N * N)) st i,
  (forall j e, b_rq (fst (f j e)) = b_rq (fst e)) -> rqs_of (mapi_from f st i) = rqs_of st.
Proof.
  intros f st. induction st as [|e t IH]; intros i Hf; simpl; auto. unfold rqs_of in *. simpl. f_equal; auto.
Qed.

Lemma advance_one_rq : forall e, b_rq (fst (advance_one e)) = b_rq (fst e).
Proof.
  intros [b l]. unfold advance_one. simpl. destruct l as [|[p sz] rest]; [reflexivity|].
  destruct (b_limit b <? b_size b + sz); reflexivity.
Qed.

Lemma add_cut_rqs : forall st i, rqs_of (add_cut st i) = rqs_of st.
Proof.
  intros st i. unfold add_cut.
  set (st1 := mapi_from _ st 0).
  assert (H1 : rqs_of st1 = rqs_of st).
  { apply mapi_from_rqs. intros j e. destruct (is_higher i j (fst e)); reflexivity. }
  destruct (higher_priorities st i); [assumption|].
  rewrite map_at_rqs; [assumption|]. intros e. reflexivity.
Qed.

Lemma merge_loop_rqs : forall fuel st u, rqs_of (merge_loop fuel st u) = rqs_of st.
Proof.
  induction fuel as [|fuel IH]; intros st u; simpl; [reflexivity|].
  destruct (found_from st (highest_prio st) 0) as [|i [|j rest]] eqn:E; [reflexivity| |].
  - destruct (match u with Some u0 => Nat.eqb u0 i | None => false end).
    + rewrite IH. apply map_at_rqs. apply advance_one_rq.
    + rewrite IH, map_at_rqs by apply advance_one_rq. apply add_cut_rqs.
  - rewrite IH.
    assert (H1 : forall l s0, rqs_of (fold_left (fun s i => map_at advance_one s i) l s0) = rqs_of s0).
    { induction l as [|a l IHl]; intros s0; simpl; [reflexivity|]. rewrite IHl. apply map_at_rqs. apply advance_one_rq. }
    assert (H2 : forall l s0, rqs_of (fold_left add_cut l s0) = rqs_of s0).
    { induction l as [|a l IHl]; intros s0; simpl; [reflexivity|]. rewrite IHl. apply add_cut_rqs. }
    rewrite H1, H2. reflexivity.
Qed.

Lemma collect_res_map : forall {A B} (f : A -> res B) (g : B -> N) (h : A -> N) l out,
  (forall a b, f a = Ok b -> g b = h a) ->
  collect_res (map f l) = Ok out -> map g out = map h l.
Proof.
  intros A B f g h. induction l as [|a t IH]; intros out Hf H; simpl in H.
  - inversion H. reflexivity.
  - destruct (f a) as [b| |] eqn:E; simpl in H; try discriminate.
    destruct (collect_res (map f t)) as [bs| |] eqn:E2; simpl in H; try discriminate.
    inversion H; subst. simpl. f_equal; [apply Hf; assumption|apply IH; auto].
Qed.

Lemma NoDup_filter : forall {A} (f : A -> bool) l, NoDup l -> NoDup (filter f l).
Proof. intros A f l. apply List.NoDup_filter. Qed.

Lemma map_filter_sub : forall {A} (g : A -> N) (f : A -> bool) l, NoDup (map g l) -> NoDup (map g (filter f l)).
Proof.
  intros A g f l. induction l as [|x t IH]; intros H; simpl in *; [constructor|].
  inversion H as [|? ? Hx Hnd]; subst. destruct (f x); simpl; [|auto].
  constructor; [|auto]. intros Hin. apply Hx. apply in_map_iff in Hin. destruct Hin as (y & E & Hy).
  apply filter_In in Hy. apply in_map_iff. exists y. tauto.
Qed.

Lemma mapi_index_nodup : forall {A} (l : list A) i,
  NoDup (map fst (mapi_from (fun i q => (N.of_nat i, q)) l i))
  /\ forall x, In x (map fst (mapi_from (fun i q => (N.of_nat i, q)) l i)) -> N.of_nat i <= x.
Proof.
  intros A. induction l as [|a t IH]; intros i; simpl; [split; [constructor|contradiction]|].
  destruct (IH (S i)) as [H1 H2]. split.
  - constructor; [|assumption]. intros Hin. specialize (H2 _ Hin). lia.
  - intros x [<-|Hin]; [lia|]. specialize (H2 _ Hin). lia.
Qed.

Lemma create_task_batches_nodup : forall I bs, create_task_batches I = Ok bs -> NoDup (map b_rq bs).
Proof.
  intros I bs H. unfold create_task_batches in H.
  set (qs := filter _ _) in H. set (st0 := map _ qs) in H.
  set (st := merge_loop _ st0 None) in H.
  destruct (collect_res _) as [pruned| |] eqn:E; simpl in H; try discriminate. inversion H; subst. clear H.
  apply map_filter_sub.
  assert (Hp : map b_rq pruned = rqs_of st).
  { unfold rqs_of. eapply collect_res_map; [|exact E].
    intros a b Hab. simpl in Hab. destruct (prune_progressive _ _ _); simpl in Hab; try discriminate.
    inversion Hab. reflexivity. }
  rewrite Hp. unfold st. rewrite merge_loop_rqs. unfold st0, rqs_of. rewrite map_map. simpl.
  unfold qs. apply map_filter_sub. apply mapi_index_nodup.
Qed.

(** * C05, row-system half (final form): for the batches the model of [create_task_batches] builds *)
Theorem C05_feasible_no_overbook_thm : forall I bs m s d,
  inst_wf I ->
  create_task_batches I = Ok bs -> milp_of I bs = Ok m -> feasible m s = true -> mapping_ok I bs s d = true ->
  forall w, In w (i_workers I) ->
    (exists v, free_after I d w = Some v
               /\ forall r, rv_get v r = rv_get (w_free w) r - demand (inst_on I w) (rqs_on I d (w_id w)) r)
    /\ (forall r, demand (inst_on I w) (rqs_on I d (w_id w)) r <= rv_get (w_free w) r)
    /\ (forall rq, In rq (rqs_on I d (w_id w)) -> placeable I w rq = true).
Proof.
  intros I bs m s d Hwf Hb. apply feasible_no_overbook; [assumption|]. apply create_task_batches_nodup with (I := I). assumption.
Qed.
