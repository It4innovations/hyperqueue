(** C15, exact class with interleaved levels: the instance class [yinst] (one worker, one resource kind,
    two request classes with arbitrary ready queues), its batches (via the two-class merge analysis of
    [ExactFullMerge]) and its gaps. *)
From HQ Require Import Base.Prelude Gen.Consts Sched.Model Sched.ProofsOrder Sched.ProofsRows Sched.ProofsCuts
  Sched.ProofsExact Sched.ExactFullMerge.
Require Import ZifyBool ZifyN ZifyNat.
From Coq Require Import Sorting.Sorted.
Open Scope N_scope.
Local Arguments N.add : simpl never. Local Arguments N.sub : simpl never. Local Arguments N.mul : simpl never.
Local Arguments N.eqb : simpl never. Local Arguments N.ltb : simpl never. Local Arguments N.leb : simpl never.
Local Arguments N.of_nat : simpl never. Local Arguments N.to_nat : simpl never. Local Arguments N.div : simpl never.
Local Arguments N.min : simpl never. Local Arguments N.max : simpl never.

Definition yinst (R F : N) (assigned : list N) (a0 a1 : N) (q0 q1 : list (N * list N)) : inst :=
  {| i_nres := 1; i_now := 0;
     i_workers := [xworker R F assigned];
     i_classes := [ {| rc_entries := [(0, a0)]; rc_min_time := 0; rc_all := [] |}; {| rc_entries := [(0, a1)]; rc_min_time := 0; rc_all := [] |} ];
     i_queues := [ {| q_ready := q0; q_prefill := None |}; {| q_ready := q1; q_prefill := None |} ] |}.

Lemma xinst_yinst : forall R F assigned ah al ph hs lq,
  xinst R F assigned ah al ph hs lq = yinst R F assigned ah al [(ph, hs)] lq.
Proof. reflexivity. Qed.

Lemma filter_tag : forall (f : N -> bool) (p : N) ids,
  filter (fun t : N * N => f (fst t)) (map (fun id => (p, id)) ids) = if f p then map (fun id => (p, id)) ids else [].
Proof.
  intros f p ids. induction ids as [|i t IH]; cbn [map filter fst]; [destruct (f p); reflexivity|].
  rewrite IH. destruct (f p); reflexivity.
Qed.

Lemma filter_concat : forall {A} (f : A -> bool) ls, filter f (concat ls) = concat (map (filter f) ls).
Proof. intros A f ls. symmetry. apply concat_filter_map. Qed.

Lemma sum_flat : forall (f : N -> bool) q,
  nlen (filter (fun t : N * N => f (fst t)) (flat_tasks q))
  = fold_right (fun e acc => (if f (fst e) then snd e else 0) + acc) 0 (levels q).
Proof.
  intros f q. unfold flat_tasks, levels. induction q as [|e t IH]; [reflexivity|].
  cbn [map concat fold_right fst snd]. rewrite filter_app, nlen_app, IH, filter_tag.
  destruct (f (fst e)); [|reflexivity]. unfold nlen. rewrite map_length. reflexivity.
Qed.

Lemma sum_ge_flat : forall p q, sum_ge p (levels q) = nlen (filter (fun t : N * N => p <=? fst t) (flat_tasks q)).
Proof.
  intros p q. rewrite (sum_flat (fun x => p <=? x)). induction (levels q) as [|e t IH]; [reflexivity|].
  cbn [sum_ge fold_right]. rewrite IH. reflexivity.
Qed.
Lemma sum_gt_flat : forall p q, sum_gt p (levels q) = nlen (filter (fun t : N * N => p <? fst t) (flat_tasks q)).
Proof.
  intros p q. rewrite (sum_flat (fun x => p <? x)). induction (levels q) as [|e t IH]; [reflexivity|].
  cbn [sum_gt fold_right]. rewrite IH. reflexivity.
Qed.
Lemma sum_all_flat : forall q, sum_all (levels q) = nlen (flat_tasks q).
Proof.
  intros q. unfold flat_tasks, levels. induction q as [|e t IH]; [reflexivity|].
  cbn [map concat sum_all fst snd]. rewrite nlen_app, IH. unfold nlen. rewrite map_length. reflexivity.
Qed.

Definition ent0 (rq limit : N) (q : list (N * list N)) : ent := (b0 rq limit, levels q).

Lemma ent0_inv : forall rq limit q, ready_wf q -> Einv (ent0 rq limit q).
Proof.
  intros rq limit q [Hs Hf]. split; cbn [ent0 fst snd b0 b_lr b_size b_limit].
  - unfold desc, levels. induction Hs as [|e t Hs IH Hall]; cbn [map]; constructor.
    + apply IH. inversion Hf; assumption.
    + rewrite Forall_map. eapply Forall_impl; [|exact Hall]. cbv beta. intros x Hx. exact Hx.
  - unfold levels. rewrite Forall_map. eapply Forall_impl; [|exact Hf]. cbv beta. intros e [Hne _]. cbn [snd].
    destruct (snd e); [congruence|]. unfold nlen. cbn [length]. lia.
  - discriminate.
  - intros _. lia.
Qed.

Lemma set_cuts_same : forall b, set_cuts b (b_cuts b) = b.
Proof. intros []. reflexivity. Qed.

Lemma prune_small : forall {A} (v : list A), (length v <= 32)%nat ->
  prune_progressive v SCHED_BATCH_PRUNING_FIXED_PREFIX SCHED_BATCH_PRUNING_MAX_SIZE = Ok v.
Proof.
  intros A v H. unfold prune_progressive.
  destruct (N.leb_spec (nlen v) SCHED_BATCH_PRUNING_MAX_SIZE) as [_|Hgt]; [reflexivity|].
  unfold nlen, SCHED_BATCH_PRUNING_MAX_SIZE in Hgt. lia.
Qed.

Section Y.
Variables (R F : N) (assigned : list N) (a0 a1 : N) (q0 q1 : list (N * list N)).
Hypothesis Ha0 : 0 < a0.
Hypothesis Ha1 : 0 < a1.
Hypothesis H0F : a0 <= F.
Hypothesis H1F : a1 <= F.
Hypothesis HFR : F <= R.
Hypothesis Hc0 : R / a0 <= SCHED_MAX_TASK_PER_WORKER.
Hypothesis Hc1 : R / a1 <= SCHED_MAX_TASK_PER_WORKER.

Let I := yinst R F assigned a0 a1 q0 q1.
Let W := xworker R F assigned.

Lemma y_placeable0 : placeable I W 0 = true.
Proof. change (placeable I W 0) with (negb false && true && ((a0 <=? F) && true)). rewrite (proj2 (N.leb_le a0 F) H0F). reflexivity. Qed.
Lemma y_placeable1 : placeable I W 1 = true.
Proof. change (placeable I W 1) with (negb false && true && ((a1 <=? F) && true)). rewrite (proj2 (N.leb_le a1 F) H1F). reflexivity. Qed.
Lemma y_capable0 : capable I W 0 = true.
Proof. change (capable I W 0) with ((a0 <=? R) && true). rewrite (proj2 (N.leb_le a0 R) (N.le_trans _ _ _ H0F HFR)). reflexivity. Qed.
Lemma y_capable1 : capable I W 1 = true.
Proof. change (capable I W 1) with ((a1 <=? R) && true). rewrite (proj2 (N.leb_le a1 R) (N.le_trans _ _ _ H1F HFR)). reflexivity. Qed.

Lemma div_cap : forall a, 0 < a -> R / a <= SCHED_MAX_TASK_PER_WORKER -> N.min (F / a) SCHED_MAX_TASK_PER_WORKER = F / a.
Proof. clear - HFR. intros a Ha Hc. assert (F / a <= R / a) by (apply N.div_le_mono; lia). lia. Qed.

Lemma y_limit0 : batch_limit I 0 = F / a0.
Proof.
  clear - I W Ha0 H0F HFR Hc0.
  unfold batch_limit. cbn [I yinst i_workers fold_right]. fold I. fold W. rewrite y_capable0.
  change (task_max_count_cls (w_free W) (class_of I 0)) with (task_max_count [F] [(0, a0)]).
  rewrite tmc1, (div_cap a0 Ha0 Hc0).
  assert (1 <= F / a0) by (apply N.div_le_lower_bound; lia).
  destruct (N.ltb_spec 0 (F / a0)); lia.
Qed.
Lemma y_limit1 : batch_limit I 1 = F / a1.
Proof.
  clear - I W Ha1 H1F HFR Hc1.
  unfold batch_limit. cbn [I yinst i_workers fold_right]. fold I. fold W. rewrite y_capable1.
  change (task_max_count_cls (w_free W) (class_of I 1)) with (task_max_count [F] [(0, a1)]).
  rewrite tmc1, (div_cap a1 Ha1 Hc1).
  assert (1 <= F / a1) by (apply N.div_le_lower_bound; lia).
  destruct (N.ltb_spec 0 (F / a1)); lia.
Qed.

Definition eA0 : ent := ent0 0 (F / a0) q0.
Definition eB0 : ent := ent0 1 (F / a1) q1.

Lemma sum_all_pos : forall q, ready_wf q -> q <> [] -> 0 < sum_all (levels q).
Proof.
  intros q Hwf Hne. pose proof (ei_pos _ (ent0_inv 0 0 q Hwf)) as Hp. cbn [ent0 snd] in Hp.
  destruct q as [|e t]; [congruence|]. cbn [levels map] in *. inversion Hp; subst. cbn [sum_all snd] in *. lia.
Qed.

Lemma post_size_pos : forall e o e' q rq limit, e = ent0 rq limit q -> ready_wf q -> q <> [] -> 1 <= limit ->
  PostZ e o e' -> 0 < b_size (fst e').
Proof.
  intros e o e' q rq limit -> Hwf Hne Hl P.
  destruct (lr_tot (ent0 rq limit q)) eqn:E.
  - rewrite (pz_size_lim _ _ _ P eq_refl E). cbn. lia.
  - rewrite (pz_size_tot _ _ _ P E). unfold Ttot. cbn [ent0 fst snd b0 b_size]. pose proof (sum_all_pos q Hwf Hne). lia.
Qed.

Theorem ybatches : ready_wf q0 -> ready_wf q1 -> q0 <> [] -> q1 <> [] -> (length q0 <= 32)%nat -> (length q1 <= 32)%nat ->
  exists bA bB, create_task_batches I = Ok [bA; bB]
    /\ merge_loop (S (length (levels q0) + (length (levels q1) + 0))) [eA0; eB0] None = [(bA, []); (bB, [])]
    /\ PostZ eA0 eB0 (bA, []) /\ PostZ eB0 eA0 (bB, []).
Proof.
  intros Hw0 Hw1 Hn0 Hn1 Hl0 Hl1.
  destruct (merge2_post (S (length (levels q0) + (length (levels q1) + 0))) eA0 eB0 None
              (ent0_inv _ _ _ Hw0) (ent0_inv _ _ _ Hw1)) as (eA' & eB' & E & PA & PB).
  { cbn [eA0 eB0 ent0 snd]. lia. }
  destruct eA' as [bA rA]. destruct eB' as [bB rB].
  pose proof (pz_rem _ _ _ PA) as EA. pose proof (pz_rem _ _ _ PB) as EB. cbn [snd] in EA, EB. subst rA rB.
  exists bA, bB. split; [|split; [exact E|split; assumption]].
  unfold create_task_batches.
  assert (Hq : filter (fun e : N * queue => negb (queue_is_empty (snd e)))
                 (mapi_from (fun i q => (N.of_nat i, q)) (i_queues I) 0)
               = [(0, {| q_ready := q0; q_prefill := None |}); (1, {| q_ready := q1; q_prefill := None |})]).
  { destruct q0; [congruence|]. destruct q1; [congruence|]. reflexivity. }
  rewrite Hq. cbn [map fst snd iter_priority_sizes q_ready q_prefill].
  rewrite y_limit0, y_limit1.
  fold (b0 0 (F / a0)). fold (b0 1 (F / a1)).
  change (map (fun e : N * list N => (fst e, nlen (snd e))) q0) with (levels q0).
  change (map (fun e : N * list N => (fst e, nlen (snd e))) q1) with (levels q1).
  cbn [fold_right snd].
  change [(b0 0 (F / a0), levels q0); (b0 1 (F / a1), levels q1)] with [eA0; eB0].
  rewrite E. cbn [map fst].
  destruct (pz_cuts _ _ _ PA) as (lA & LA1 & LA2 & _). destruct (pz_cuts _ _ _ PB) as (lB & LB1 & LB2 & _).
  cbn [fst snd eA0 eB0 ent0 b0 b_cuts app] in LA1, LA2, LB1, LB2.
  unfold levels in LA2, LB2. rewrite map_length in LA2, LB2.
  rewrite !prune_small by (rewrite ?LA1, ?LB1; lia).
  cbn [bind collect_res]. rewrite !set_cuts_same. cbn [filter].
  assert (SA : 0 <? b_size bA = true).
  { apply N.ltb_lt. apply (post_size_pos eA0 eB0 (bA, []) q0 0 (F / a0) eq_refl Hw0 Hn0); [|exact PA].
    apply N.div_le_lower_bound; lia. }
  assert (SB : 0 <? b_size bB = true).
  { apply N.ltb_lt. apply (post_size_pos eB0 eA0 (bB, []) q1 1 (F / a1) eq_refl Hw1 Hn1); [|exact PB].
    apply N.div_le_lower_bound; lia. }
  rewrite SA, SB. reflexivity.
Qed.

Lemma remove_assigned_y : forall x asg h,
  exists y, remove_assigned I [x] asg h = Ok [y] /\ y <= x.
Proof.
  clear.
  intros x asg h. revert x.
  induction asg as [|rq t IH]; intros x; cbn [remove_assigned].
  - exists x. split; [reflexivity|lia].
  - destruct (rq =? h); [apply IH|].
    assert (Hr : exists y, rv_remove_cls [x] (class_of I rq) 1 = Ok [y] /\ y <= x).
    { unfold class_of. cbn [I yinst i_classes].
      destruct (N.to_nat rq) as [|[|n]] eqn:E; cbn [nth].
      - change (rv_remove_cls [x] {| rc_entries := [(0, a0)]; rc_min_time := 0; rc_all := [] |} 1) with (rv_remove_multiple [x] [(0, a0)] 1).
        rewrite rv1_remove. exists (x - a0 * 1). split; [reflexivity|lia].
      - change (rv_remove_cls [x] {| rc_entries := [(0, a1)]; rc_min_time := 0; rc_all := [] |} 1) with (rv_remove_multiple [x] [(0, a1)] 1).
        rewrite rv1_remove. exists (x - a1 * 1). split; [reflexivity|lia].
      - destruct n; cbn; exists x; split; try reflexivity; lia. }
    destruct Hr as (y & Hy & Hle). rewrite Hy. cbn [bind].
    destruct (IH y) as (y' & Hy' & Hle'). exists y'. split; [assumption|lia].
Qed.

Lemma gap_small : forall ah al x, 0 < ah -> 0 < al -> R / ah <= SCHED_MAX_TASK_PER_WORKER ->
  x <= R - ah * task_max_count [R] [(0, ah)] -> task_max_count [x] [(0, al)] * al < ah.
Proof.
  clear.
  intros ah al y Hah Hal Hcap Hle.
  rewrite !tmc1 in *. replace (N.min (R / ah) SCHED_MAX_TASK_PER_WORKER) with (R / ah) in Hle by lia.
  assert (Hmod : R - ah * (R / ah) < ah).
  { pose proof (N.mod_lt R ah ltac:(lia)). pose proof (N.div_mod R ah ltac:(lia)). lia. }
  assert (Hy2 : y / al * al <= y) by (pose proof (N.div_mod y al ltac:(lia)); pose proof (N.mod_lt y al ltac:(lia)); nia).
  assert (N.min (y / al) SCHED_MAX_TASK_PER_WORKER <= y / al) by lia. nia.
Qed.

(** blocker class 0, low class 1 *)
Lemma ygap01 : exists g, gap I W 0 1 = Ok g /\ g * a1 < a0.
Proof.
  clear - I W Ha0 Ha1 Hc0.
  unfold gap. change (rc_all (class_of I 0)) with (@nil N). cbv iota.
  unfold gap_resources. cbv zeta.
  change (task_max_count_cls (w_res W) (class_of I 0)) with (task_max_count [R] [(0, a0)]).
  change (rv_remove_cls (w_res W) (class_of I 0)) with (rv_remove_multiple [R] [(0, a0)]).
  change (w_assigned W) with assigned.
  rewrite rv1_remove. cbn [bind].
  destruct (remove_assigned_y (R - a0 * task_max_count [R] [(0, a0)]) assigned 0) as (y & Hy & Hle).
  rewrite Hy. cbn [bind]. exists (task_max_count [y] [(0, a1)]). split; [reflexivity|].
  apply (gap_small a0 a1 y Ha0 Ha1 Hc0 Hle).
Qed.

(** blocker class 1, low class 0 *)
Lemma ygap10 : exists g, gap I W 1 0 = Ok g /\ g * a0 < a1.
Proof.
  clear - I W Ha0 Ha1 Hc1.
  unfold gap. change (rc_all (class_of I 1)) with (@nil N). cbv iota.
  unfold gap_resources. cbv zeta.
  change (task_max_count_cls (w_res W) (class_of I 1)) with (task_max_count [R] [(0, a1)]).
  change (rv_remove_cls (w_res W) (class_of I 1)) with (rv_remove_multiple [R] [(0, a1)]).
  change (w_assigned W) with assigned.
  rewrite rv1_remove. cbn [bind].
  destruct (remove_assigned_y (R - a1 * task_max_count [R] [(0, a1)]) assigned 1) as (y & Hy & Hle).
  rewrite Hy. cbn [bind]. exists (task_max_count [y] [(0, a0)]). split; [reflexivity|].
  apply (gap_small a1 a0 y Ha1 Ha0 Hc1 Hle).
Qed.

End Y.
