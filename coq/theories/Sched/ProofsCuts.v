(** C15: semantics of the cut rows.  Every feasible point of the exact row system satisfies, for every
    batch (low class), cut and blocker whose blocking size is not reached (or that is unbounded): on every
    worker where the blocker class may run and the gap is positive, at most [cut + gap] tasks of the low
    class are placed ([cut_semantics_gap]). *)
From HQ Require Import Base.Prelude Gen.Consts Sched.Model Sched.ProofsRows.
Require Import ZifyBool ZifyN ZifyNat.
Open Scope N_scope.

Definition xvars (I : inst) (bs : list batch) (w : worker) (l : N) : list var :=
  if has_x I bs w l then [VX (w_id w) l] else [].

Lemma collect_res_in : forall {A B} (f : A -> res B) l out a,
  collect_res (map f l) = Ok out -> In a l -> exists b, f a = Ok b /\ In b out.
Proof.
  intros A B f. induction l as [|x t IH]; intros out a H Hin; simpl in *; [contradiction|].
  destruct (f x) as [bx| |] eqn:E; simpl in H; try discriminate.
  destruct (collect_res (map f t)) as [bs| |] eqn:E2; simpl in H; try discriminate.
  inversion H; subst. destruct Hin as [->|Hin].
  - exists bx. split; [assumption|left; reflexivity].
  - destruct (IH bs a eq_refl Hin) as (b & Hb & Hi). exists b. split; [assumption|right; assumption].
Qed.

Lemma blocker_items_cons : forall I bs b c h bsz hb w t zero,
  blocker_items I bs b c h bsz hb (w :: t) zero =
  if capable I w h then
    do g <- gap I w h (b_rq b);
    let vars := if has_x I bs w (b_rq b) then [VX (w_id w) (b_rq b)] else [] in
    if 0 <? g then
      do r <- blocker_items I bs b c h bsz hb t zero;
      let it := match bsz with
                | Some s => if hb then [IGapB (w_id w) (b_rq b) h (c_size c) s g (b_size b) vars] else []
                | None => [IGapU (w_id w) (b_rq b) h (c_size c) g vars]
                end in
      Ok (it ++ fst r, snd r)
    else blocker_items I bs b c h bsz hb t (zero ++ vars)
  else blocker_items I bs b c h bsz hb t zero.
Proof. reflexivity. Qed.

Lemma blocker_items_gap : forall I bs b c h bsz hb ws zero its zero' w g,
  blocker_items I bs b c h bsz hb ws zero = Ok (its, zero') ->
  In w ws -> capable I w h = true -> gap I w h (b_rq b) = Ok g -> 0 < g ->
  match bsz with
  | Some s => hb = true -> In (IGapB (w_id w) (b_rq b) h (c_size c) s g (b_size b) (xvars I bs w (b_rq b))) its
  | None => In (IGapU (w_id w) (b_rq b) h (c_size c) g (xvars I bs w (b_rq b))) its
  end.
Proof.
  intros I bs b c h bsz hb ws. induction ws as [|w0 t IH]; intros zero its zero' w g H Hin Hcap Hg Hpos; [contradiction|].
  rewrite blocker_items_cons in H. destruct Hin as [->|Hin].
  - rewrite Hcap, Hg in H. cbn [bind] in H. destruct (N.ltb_spec 0 g) as [_|]; [|lia].
    destruct (blocker_items I bs b c h bsz hb t zero) as [[its1 z1]| |] eqn:E; cbn [bind fst snd] in H; try discriminate.
    inversion H; subst. destruct bsz as [s|].
    + intros ->. apply in_or_app. left. left. reflexivity.
    + apply in_or_app. left. left. reflexivity.
  - destruct (capable I w0 h).
    + destruct (gap I w0 h (b_rq b)) as [g0| |]; cbn [bind] in H; try discriminate.
      destruct (0 <? g0).
      * destruct (blocker_items I bs b c h bsz hb t zero) as [[its1 z1]| |] eqn:E; cbn [bind fst snd] in H; try discriminate.
        inversion H; subst. specialize (IH _ _ _ w g E Hin Hcap Hg Hpos).
        destruct bsz; [intros Hb; apply in_or_app; right; apply IH; assumption|apply in_or_app; right; apply IH].
      * apply (IH _ _ _ w g H Hin Hcap Hg Hpos).
    + apply (IH _ _ _ w g H Hin Hcap Hg Hpos).
Qed.

Lemma cut_items_gap : forall I bs b c bl seen its seen' h bsz w g,
  cut_items I bs b c bl seen = Ok (its, seen') ->
  In (h, bsz) bl -> In w (i_workers I) -> capable I w h = true -> gap I w h (b_rq b) = Ok g -> 0 < g ->
  match bsz with
  | Some s => count_vars I bs h <> [] -> In (IGapB (w_id w) (b_rq b) h (c_size c) s g (b_size b) (xvars I bs w (b_rq b))) its
  | None => In (IGapU (w_id w) (b_rq b) h (c_size c) g (xvars I bs w (b_rq b))) its
  end.
Proof.
  intros I bs b c. induction bl as [|[h0 bsz0] t IH]; intros seen its seen' h bsz w g H Hin Hw Hcap Hg Hpos; [contradiction|].
  simpl in H.
  destruct (blocker_items I bs b c h0 bsz0 _ (i_workers I) []) as [[its1 zero]| |] eqn:E; simpl in H; try discriminate.
  set (zz := match zero with [] => _ | _ => _ end) in H. destruct zz as [zitem seen1].
  destruct (cut_items I bs b c t seen1) as [[its2 seen2]| |] eqn:E2; simpl in H; try discriminate.
  inversion H; subst. destruct Hin as [Heq|Hin].
  - inversion Heq; subst. pose proof (blocker_items_gap _ _ _ _ _ _ _ _ _ _ _ w g E Hw Hcap Hg Hpos) as Hb.
    simpl in Hb. destruct bsz as [s|].
    + intros Hcv. apply in_or_app. left. apply Hb. destruct (count_vars I bs h); [congruence|reflexivity].
    + apply in_or_app. left. assumption.
  - specialize (IH _ _ _ h bsz w g E2 Hin Hw Hcap Hg Hpos). destruct bsz; [intros Hcv; apply in_or_app; right; apply in_or_app; right; auto
                  |apply in_or_app; right; apply in_or_app; right; auto].
Qed.

Lemma cuts_items_gap : forall I bs b cs seen its c h bsz w g,
  cuts_items I bs b cs seen = Ok its ->
  In c cs -> In (h, bsz) (c_blockers c) -> In w (i_workers I) -> capable I w h = true ->
  gap I w h (b_rq b) = Ok g -> 0 < g ->
  match bsz with
  | Some s => count_vars I bs h <> [] -> In (IGapB (w_id w) (b_rq b) h (c_size c) s g (b_size b) (xvars I bs w (b_rq b))) its
  | None => In (IGapU (w_id w) (b_rq b) h (c_size c) g (xvars I bs w (b_rq b))) its
  end.
Proof.
  intros I bs b. induction cs as [|c0 t IH]; intros seen its c h bsz w g H Hc Hbl Hw Hcap Hg Hpos; [contradiction|].
  simpl in H. destruct (cut_items I bs b c0 (c_blockers c0) seen) as [[its1 seen1]| |] eqn:E; simpl in H; try discriminate.
  destruct (cuts_items I bs b t seen1) as [its2| |] eqn:E2; simpl in H; try discriminate.
  inversion H; subst. destruct Hc as [->|Hc].
  - pose proof (cut_items_gap _ _ _ _ _ _ _ _ h bsz w g E Hbl Hw Hcap Hg Hpos) as Hb.
    destruct bsz; [intros Hcv; apply in_or_app; left; auto|apply in_or_app; left; auto].
  - specialize (IH _ _ c h bsz w g E2 Hc Hbl Hw Hcap Hg Hpos). destruct bsz; [intros Hcv; apply in_or_app; right; auto|apply in_or_app; right; auto].
Qed.

Lemma all_items_gap : forall I bs its b c h bsz w g,
  all_items I bs = Ok its -> In b bs -> count_vars I bs (b_rq b) <> [] ->
  In c (b_cuts b) -> In (h, bsz) (c_blockers c) -> In w (i_workers I) -> capable I w h = true ->
  gap I w h (b_rq b) = Ok g -> 0 < g ->
  match bsz with
  | Some s => count_vars I bs h <> [] -> In (IGapB (w_id w) (b_rq b) h (c_size c) s g (b_size b) (xvars I bs w (b_rq b))) its
  | None => In (IGapU (w_id w) (b_rq b) h (c_size c) g (xvars I bs w (b_rq b))) its
  end.
Proof.
  intros I bs its b c h bsz w g H Hb Hcv Hc Hbl Hw Hcap Hg Hpos.
  unfold all_items in H. destruct (collect_res (map (batch_items I bs) bs)) as [l| |] eqn:E; simpl in H; try discriminate.
  inversion H; subst. destruct (collect_res_in _ _ _ b E Hb) as (bi & Hbi & Hin).
  unfold batch_items in Hbi. destruct (count_vars I bs (b_rq b)) eqn:Ecv; [congruence|].
  destruct (cuts_items I bs b (b_cuts b) []) as [ci| |] eqn:E3; simpl in Hbi; try discriminate. inversion Hbi; subst.
  pose proof (cuts_items_gap _ _ _ _ _ _ c h bsz w g E3 Hc Hbl Hw Hcap Hg Hpos) as Hx.
  destruct bsz.
  - intros Hcvh. apply in_concat. eexists. split; [exact Hin|]. apply in_or_app. right. auto.
  - apply in_concat. eexists. split; [exact Hin|]. apply in_or_app. right. auto.
Qed.

Lemma emit_row_in : forall I bs its created it, In it its -> In (ERow (item_row I bs it)) (emit I bs created its).
Proof.
  intros I bs. induction its as [|i0 t IH]; intros created it Hin; [contradiction|].
  simpl. destruct Hin as [->|Hin].
  - destruct (item_bvar it) as [hs|]; [destruct (pair_mem hs created)|]; simpl; auto.
  - destruct (item_bvar i0) as [hs|]; [destruct (pair_mem hs created)|]; simpl; auto 6.
Qed.

Lemma pair_mem_spec : forall p l, pair_mem p l = true <-> In p l.
Proof.
  intros [a b] l. unfold pair_mem. rewrite existsb_exists. split.
  - intros ([x y] & Hin & H). simpl in H. apply andb_true_iff in H. destruct H as [H1 H2].
    apply N.eqb_eq in H1. apply N.eqb_eq in H2. subst. assumption.
  - intros H. exists (a, b). split; [assumption|]. simpl. rewrite !N.eqb_refl. reflexivity.
Qed.

Lemma emit_blk_in : forall I bs its created it h s,
  In it its -> item_bvar it = Some (h, s) -> ~ In (h, s) created ->
  In (ERow (blk_row I bs h s)) (emit I bs created its) /\ In (EVar (VB h s) KBool 0%Z) (emit I bs created its).
Proof.
  intros I bs. induction its as [|i0 t IH]; intros created it h s Hin Hb Hnc; [contradiction|].
  simpl. destruct (item_bvar i0) as [hs|] eqn:E0.
  - destruct (pair_mem hs created) eqn:Em.
    + destruct Hin as [->|Hin].
      * rewrite Hb in E0. inversion E0; subst. apply pair_mem_spec in Em. contradiction.
      * destruct (IH created it h s Hin Hb Hnc). split; right; assumption.
    + destruct hs as [h0 s0]. simpl.
      destruct (N.eq_dec h0 h) as [->|Hh]; [destruct (N.eq_dec s0 s) as [->|Hs]|].
      * split; auto.
      * destruct Hin as [->|Hin]; [rewrite Hb in E0; inversion E0; congruence|].
        destruct (IH ((h, s0) :: created) it h s Hin Hb) as [H1 H2]; [intros [H|H]; [inversion H; congruence|contradiction]|].
        split; auto.
      * destruct Hin as [->|Hin]; [rewrite Hb in E0; inversion E0; congruence|].
        destruct (IH ((h0, s0) :: created) it h s Hin Hb) as [H1 H2]; [intros [H|H]; [inversion H; congruence|contradiction]|].
        split; auto.
  - destruct Hin as [->|Hin]; [congruence|].
    destruct (IH created it h s Hin Hb Hnc). split; right; assumption.
Qed.

Lemma milp_items : forall I bs m, milp_of I bs = Ok m ->
  exists its, all_items I bs = Ok its /\ forall e, In e (emit I bs [] its) -> In e m.
Proof.
  intros I bs m H. unfold milp_of in H. destruct (all_items I bs) as [its| |]; simpl in H; try discriminate.
  inversion H; subst. exists its. split; [reflexivity|]. intros e He. apply in_or_app. right. assumption.
Qed.


Lemma lhs_ones : forall (s : sol) vs, lhs s (ones vs) = fold_right (fun v acc => (s v + acc)%Z) 0%Z vs.
Proof. intros s vs. induction vs as [|v t IH]; simpl; [reflexivity|]. rewrite IH. lia. Qed.

Lemma lhs_xvars : forall I bs (s : sol) w l,
  lhs s (ones (xvars I bs w l)) = if has_x I bs w l then s (VX (w_id w) l) else 0%Z.
Proof. intros. unfold xvars. destruct (has_x I bs w l); simpl; lia. Qed.

Lemma placed_le : forall I bs (s : sol) w l (k : N),
  (lhs s (ones (xvars I bs w l)) <= Z.of_N k)%Z -> placed I bs s w l <= k.
Proof.
  intros I bs s w l k H. rewrite lhs_xvars in H. unfold placed, sol_x.
  destruct (has_x I bs w l); lia.
Qed.

Lemma blocker_forced : forall I bs m (s : sol) h sz,
  feasible m s = true ->
  In (ERow (blk_row I bs h sz)) m -> In (EVar (VB h sz) KBool 0%Z) m ->
  (count_of I bs s h < Z.of_N sz)%Z -> s (VB h sz) = 1%Z.
Proof.
  intros I bs m s h sz Hf Hrow Hvar Hlt.
  pose proof (feasible_in m s _ Hf Hrow) as Hr. pose proof (feasible_in m s _ Hf Hvar) as Hv.
  simpl in Hv. unfold blk_row in Hr. simpl in Hr. unfold row_ok, row_lhs in Hr. simpl in Hr.
  fold (lhs s (ones (count_vars I bs h) ++ [(VB h sz, z sz)])) in Hr. rewrite lhs_app, lhs_ones in Hr.
  fold (count_of I bs s h) in Hr. simpl in Hr. unfold z in *. nia.
Qed.

(** * C15: semantics of the cut rows (per worker with a positive gap) *)
Theorem cut_semantics_gap : forall I bs m s b c h bsz w g,
  milp_of I bs = Ok m -> feasible m s = true ->
  In b bs -> count_vars I bs (b_rq b) <> [] -> In c (b_cuts b) -> In (h, bsz) (c_blockers c) ->
  blocker_open I bs s (h, bsz) = true ->
  In w (i_workers I) -> capable I w h = true -> gap I w h (b_rq b) = Ok g -> 0 < g ->
  placed I bs s w (b_rq b) <= c_size c + g.
Proof.
  intros I bs m s b c h bsz w g Hm Hf Hb Hcv Hc Hbl Hopen Hw Hcap Hg Hpos.
  destruct (milp_items I bs m Hm) as (its & Hits & Hemit).
  pose proof (all_items_gap I bs its b c h bsz w g Hits Hb Hcv Hc Hbl Hw Hcap Hg Hpos) as Hitem.
  unfold blocker_open in Hopen. simpl in Hopen.
  destruct bsz as [sz|].
  - destruct (count_vars I bs h) eqn:Ecv; [discriminate|]. rewrite <- Ecv in *.
    assert (Hcvh : count_vars I bs h <> []) by (rewrite Ecv; discriminate).
    specialize (Hitem Hcvh).
    pose proof (Hemit _ (emit_row_in I bs its [] _ Hitem)) as Hrow.
    destruct (emit_blk_in I bs its [] _ h sz Hitem eq_refl (fun x => x)) as [Hblk Hvar].
    pose proof (blocker_forced I bs m s h sz Hf (Hemit _ Hblk) (Hemit _ Hvar)) as HB.
    assert (Hlt : (count_of I bs s h < Z.of_N sz)%Z) by (unfold z in Hopen; lia).
    specialize (HB Hlt).
    pose proof (feasible_in m s _ Hf Hrow) as Hr. simpl in Hr. unfold row_ok, row_lhs in Hr. simpl in Hr.
    fold (lhs s (ones (xvars I bs w (b_rq b)) ++ [(VB h sz, z (b_size b))])) in Hr. rewrite lhs_app in Hr.
    simpl in Hr. rewrite HB in Hr. apply placed_le. unfold z in *. lia.
  - pose proof (Hemit _ (emit_row_in I bs its [] _ Hitem)) as Hrow.
    pose proof (feasible_in m s _ Hf Hrow) as Hr. simpl in Hr. unfold row_ok, row_lhs in Hr. simpl in Hr.
    fold (lhs s (ones (xvars I bs w (b_rq b)))) in Hr. apply placed_le. unfold z in *. lia.
Qed.

Definition zero_gap (I : inst) (w : worker) (h l : N) : bool :=
  capable I w h && match gap I w h l with Ok g => g =? 0 | _ => false end.

Definition zero_sum (I : inst) (bs : list batch) (s : sol) (h l : N) (ws : list worker) : Z :=
  fold_right (fun w acc => ((if zero_gap I w h l then lhs s (ones (xvars I bs w l)) else 0) + acc)%Z) 0%Z ws.

Lemma ones_app : forall a b, ones (a ++ b) = ones a ++ ones b.
Proof. intros. unfold ones. apply map_app. Qed.

Lemma blocker_items_zero : forall I bs (s : sol) b c h bsz hb ws zero its zero',
  blocker_items I bs b c h bsz hb ws zero = Ok (its, zero') ->
  lhs s (ones zero') = (lhs s (ones zero) + zero_sum I bs s h (b_rq b) ws)%Z.
Proof.
  intros I bs s b c h bsz hb. induction ws as [|w t IH]; intros zero its zero' H.
  - simpl in H. inversion H; subst. simpl. lia.
  - rewrite blocker_items_cons in H. cbn [zero_sum fold_right]. fold (zero_sum I bs s h (b_rq b) t).
    unfold zero_gap. destruct (capable I w h); cbn [andb].
    + destruct (gap I w h (b_rq b)) as [g| |]; cbn [bind] in H; try discriminate.
      destruct (N.ltb_spec 0 g) as [Hpos|Hz].
      * destruct (blocker_items I bs b c h bsz hb t zero) as [[its1 z1]| |] eqn:E; cbn [bind fst snd] in H; try discriminate.
        inversion H; subst. rewrite (IH _ _ _ E). destruct (N.eqb_spec g 0); lia.
      * rewrite (IH _ _ _ H). fold (xvars I bs w (b_rq b)). rewrite ones_app, lhs_app.
        destruct (N.eqb_spec g 0); lia.
    + rewrite (IH _ _ _ H). lia.
Qed.

Lemma cut_items_zero : forall I bs b c bl seen its seen' h sz,
  cut_items I bs b c bl seen = Ok (its, seen') -> In (h, Some sz) bl -> count_vars I bs h <> [] ->
  exists zero, (forall s : sol, lhs s (ones zero) = zero_sum I bs s h (b_rq b) (i_workers I))
               /\ (zero = [] \/ In (IZeroB (b_rq b) h (c_size c) sz (b_size b) zero) its).
Proof.
  intros I bs b c. induction bl as [|[h0 bsz0] t IH]; intros seen its seen' h sz H Hin Hcv; [contradiction|].
  simpl in H.
  destruct (blocker_items I bs b c h0 bsz0 _ (i_workers I) []) as [[its1 zero]| |] eqn:E; simpl in H; try discriminate.
  destruct Hin as [Heq|Hin].
  - inversion Heq; subst. exists zero. split.
    + intros s. rewrite (blocker_items_zero I bs s _ _ _ _ _ _ _ _ _ E). simpl. lia.
    + destruct zero as [|v vs]; [left; reflexivity|right].
      destruct (count_vars I bs h) eqn:Ecv; [congruence|].
      destruct (cut_items I bs b c t seen) as [[its2 seen2]| |] eqn:E2; simpl in H; try discriminate.
      inversion H; subst. apply in_or_app. right. left. reflexivity.
  - set (zz := match zero with [] => _ | _ => _ end) in H. destruct zz as [zitem seen1].
    destruct (cut_items I bs b c t seen1) as [[its2 seen2]| |] eqn:E2; simpl in H; try discriminate.
    inversion H; subst. destruct (IH _ _ _ h sz E2 Hin Hcv) as (z0 & Hz & Hor). exists z0. split; [assumption|].
    destruct Hor as [->|Hi]; [left; reflexivity|right]. apply in_or_app. right. apply in_or_app. right. assumption.
Qed.

Lemma cuts_items_zero : forall I bs b cs seen its c h sz,
  cuts_items I bs b cs seen = Ok its -> In c cs -> In (h, Some sz) (c_blockers c) -> count_vars I bs h <> [] ->
  exists zero, (forall s : sol, lhs s (ones zero) = zero_sum I bs s h (b_rq b) (i_workers I))
               /\ (zero = [] \/ In (IZeroB (b_rq b) h (c_size c) sz (b_size b) zero) its).
Proof.
  intros I bs b. induction cs as [|c0 t IH]; intros seen its c h sz H Hc Hbl Hcv; [contradiction|].
  simpl in H. destruct (cut_items I bs b c0 (c_blockers c0) seen) as [[its1 seen1]| |] eqn:E; simpl in H; try discriminate.
  destruct (cuts_items I bs b t seen1) as [its2| |] eqn:E2; simpl in H; try discriminate.
  inversion H; subst. destruct Hc as [->|Hc].
  - destruct (cut_items_zero _ _ _ _ _ _ _ _ h sz E Hbl Hcv) as (z0 & Hz & Hor). exists z0. split; [assumption|].
    destruct Hor as [->|Hi]; [left; reflexivity|right; apply in_or_app; left; assumption].
  - destruct (IH _ _ c h sz E2 Hc Hbl Hcv) as (z0 & Hz & Hor). exists z0. split; [assumption|].
    destruct Hor as [->|Hi]; [left; reflexivity|right; apply in_or_app; right; assumption].
Qed.

(** * C15: semantics of the cut rows (aggregate over the zero-gap workers, bounded blocker) *)
Theorem cut_semantics_zero : forall I bs m s b c h sz,
  milp_of I bs = Ok m -> feasible m s = true ->
  In b bs -> count_vars I bs (b_rq b) <> [] -> In c (b_cuts b) -> In (h, Some sz) (c_blockers c) ->
  blocker_open I bs s (h, Some sz) = true ->
  (zero_sum I bs s h (b_rq b) (i_workers I) <= Z.of_N (c_size c))%Z.
Proof.
  intros I bs m s b c h sz Hm Hf Hb Hcv Hc Hbl Hopen.
  destruct (milp_items I bs m Hm) as (its & Hits & Hemit).
  unfold blocker_open in Hopen. simpl in Hopen.
  assert (Hcvh : count_vars I bs h <> []) by (intros E0; rewrite E0 in Hopen; discriminate).
  assert (Hlt : (count_of I bs s h < Z.of_N sz)%Z)
    by (destruct (count_vars I bs h); [congruence|unfold z in Hopen; lia]).
  unfold all_items in Hits. destruct (collect_res (map (batch_items I bs) bs)) as [l| |] eqn:E; simpl in Hits; try discriminate.
  inversion Hits; subst. destruct (collect_res_in _ _ _ b E Hb) as (bi & Hbi & Hin).
  unfold batch_items in Hbi. destruct (count_vars I bs (b_rq b)) eqn:Ecvb; [congruence|].
  destruct (cuts_items I bs b (b_cuts b) []) as [ci| |] eqn:E3; simpl in Hbi; try discriminate. inversion Hbi; subst.
  destruct (cuts_items_zero _ _ _ _ _ _ c h sz E3 Hc Hbl Hcvh) as (zero & Hz & Hor).
  rewrite <- Hz. destruct Hor as [->|Hi]; [simpl; lia|].
  assert (Hitem : In (IZeroB (b_rq b) h (c_size c) sz (b_size b) zero) (concat l)).
  { apply in_concat. eexists. split; [exact Hin|]. apply in_or_app. right. assumption. }
  pose proof (Hemit _ (emit_row_in I bs _ [] _ Hitem)) as Hrow.
  destruct (emit_blk_in I bs _ [] _ h sz Hitem eq_refl (fun x => x)) as [Hblk Hvar].
  pose proof (blocker_forced I bs m s h sz Hf (Hemit _ Hblk) (Hemit _ Hvar) Hlt) as HB.
  pose proof (feasible_in m s _ Hf Hrow) as Hr. simpl in Hr. unfold row_ok, row_lhs in Hr. simpl in Hr.
  fold (lhs s (ones zero ++ [(VB h sz, z (b_size b))])) in Hr. rewrite lhs_app in Hr.
  simpl in Hr. rewrite HB in Hr. unfold z in *. lia.
Qed.
