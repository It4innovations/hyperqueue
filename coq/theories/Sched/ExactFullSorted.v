(** C15: the cut sizes of every batch built by [create_task_batches] ascend (any number of classes; the
    pruning keeps the order).  With [ExactFullZeroU] this gives the aggregate zero-gap bound for an
    unbounded blocker without any side condition ([cut_semantics_zero_unbounded_batches]). *)
From HQ Require Import Base.Prelude Gen.Consts Sched.Model Sched.ProofsRows Sched.ProofsCuts Sched.ProofsExact
  Sched.ExactFullMerge Sched.ExactFullZeroU Sched.ExactFullInst.
Require Import ZifyBool ZifyN ZifyNat.
From Coq Require Import Sorting.Sorted.
Open Scope N_scope.
Local Arguments N.add : simpl never. Local Arguments N.sub : simpl never. Local Arguments N.mul : simpl never.
Local Arguments N.eqb : simpl never. Local Arguments N.ltb : simpl never. Local Arguments N.leb : simpl never.
Local Arguments N.of_nat : simpl never. Local Arguments N.to_nat : simpl never. Local Arguments N.div : simpl never.

Definition Cinv (e : ent) : Prop :=
  StronglySorted le_size (b_cuts (fst e))
  /\ Forall (fun c => c_size c <= b_size (fst e)) (b_cuts (fst e))
  /\ b_size (fst e) <= b_limit (fst e).

Lemma Cinv_advance : forall e, Cinv e -> Cinv (advance_one e).
Proof.
  intros [b [|[p sz] t]] H; [exact H|]. rewrite advance_cons. destruct H as (H1 & H2 & H3). cbn [fst] in *.
  destruct (N.ltb_spec (b_limit b) (b_size b + sz)); unfold Cinv; cbn [fst set_size b_cuts b_size b_limit].
  - split; [exact H1|]. split; [|lia]. eapply Forall_impl; [|exact H2]. cbv beta. intros; lia.
  - split; [exact H1|]. split; [|lia]. eapply Forall_impl; [|exact H2]. cbv beta. intros; lia.
Qed.

Lemma Cinv_blk : forall e, Cinv e -> Cinv (set_blk (fst e), snd e).
Proof. intros [b r] H. exact H. Qed.

Lemma sorted_snoc : forall l c, StronglySorted le_size l -> Forall (fun c0 => c_size c0 <= c_size c) l -> StronglySorted le_size (l ++ [c]).
Proof.
  induction l as [|x t IH]; intros c Hs Hf; cbn [app]; [repeat constructor|].
  inversion Hs as [|? ? Hs' Hall]; subst. inversion Hf as [|? ? Hx Hf']; subst.
  constructor; [apply IH; assumption|]. apply Forall_app. split; [assumption|]. constructor; [exact Hx|constructor].
Qed.

Lemma Cinv_push : forall e hp, Cinv e -> Cinv (push_cut (fst e) {| c_size := b_size (fst e); c_blockers := hp |}, snd e).
Proof.
  intros [b r] hp (H1 & H2 & H3). cbn [fst snd] in *. unfold Cinv. cbn [fst push_cut b_cuts b_size b_limit].
  split; [apply sorted_snoc; assumption|]. split; [|exact H3].
  apply Forall_app. split; [exact H2|]. constructor; [cbn; lia|constructor].
Qed.

Lemma map_at_Forall : forall {A} (P : A -> Prop) (f : A -> A) l i, Forall P l ->
  (forall e, nth_error l i = Some e -> P e -> P (f e)) -> Forall P (map_at f l i).
Proof.
  intros A P f. induction l as [|x t IH]; intros i Hl Hf; cbn [map_at]; [constructor|].
  inversion Hl as [|? ? Hx Ht]; subst. destruct i as [|i].
  - constructor; [apply Hf; [reflexivity|exact Hx]|exact Ht].
  - constructor; [exact Hx|]. apply IH; [exact Ht|]. intros e He. apply Hf. exact He.
Qed.

Lemma mapi_from_Forall : forall {A} (P : A -> Prop) (f : nat -> A -> A) l i, Forall P l ->
  (forall j e, P e -> P (f j e)) -> Forall P (mapi_from f l i).
Proof.
  intros A P f. induction l as [|x t IH]; intros i Hl Hf; cbn [mapi_from]; [constructor|].
  inversion Hl; subst. constructor; [apply Hf; assumption|apply IH; assumption].
Qed.

Lemma mapi_from_nth : forall {A} (f : nat -> A -> A) l i k,
  nth_error (mapi_from f l i) k = match nth_error l k with Some x => Some (f (i + k)%nat x) | None => None end.
Proof.
  intros A f. induction l as [|x t IH]; intros i k; cbn [mapi_from]; [destruct k; reflexivity|].
  destruct k as [|k]; cbn [nth_error]; [rewrite Nat.add_0_r; reflexivity|]. rewrite IH. replace (S i + k)%nat with (i + S k)%nat by lia. reflexivity.
Qed.

Lemma add_cut_Cinv : forall st idx, Forall Cinv st -> Forall Cinv (add_cut st idx).
Proof.
  intros st idx H. unfold add_cut.
  set (st1 := mapi_from (fun j e => if is_higher idx j (fst e) then (set_blk (fst e), snd e) else e) st 0).
  assert (H1 : Forall Cinv st1).
  { apply mapi_from_Forall; [exact H|]. intros j e He. destruct (is_higher idx j (fst e)); [apply Cinv_blk|]; exact He. }
  destruct (higher_priorities st idx) as [|hb hp]; [exact H1|].
  apply map_at_Forall; [exact H1|]. intros e He Hc.
  unfold st1 in He. rewrite mapi_from_nth in He. cbn [Nat.add] in He.
  destruct (nth_error st idx) as [e0|] eqn:E0; [|discriminate].
  unfold is_higher in He. rewrite Nat.eqb_refl in He. cbn [negb andb] in He. injection He as <-.
  unfold ent in E0. rewrite E0. apply (Cinv_push e0 (hb :: hp)). exact Hc.
Qed.

Lemma advance_at_Cinv : forall st i, Forall Cinv st -> Forall Cinv (map_at advance_one st i).
Proof. intros st i H. apply map_at_Forall; [exact H|]. intros e _ He. apply Cinv_advance. exact He. Qed.

Lemma merge_loop_Cinv : forall fuel st u, Forall Cinv st -> Forall Cinv (merge_loop fuel st u).
Proof.
  induction fuel as [|f IH]; intros st u H; [exact H|]. rewrite merge_loop_S.
  destruct (found_from st (highest_prio st) 0) as [|i [|j r]] eqn:E.
  - exact H.
  - destruct (match u with Some u0 => Nat.eqb u0 i | None => false end); apply IH.
    + apply advance_at_Cinv. exact H.
    + apply advance_at_Cinv. apply add_cut_Cinv. exact H.
  - apply IH.
    assert (G1 : forall l s0, Forall Cinv s0 -> Forall Cinv (fold_left add_cut l s0)).
    { induction l as [|x t IHl]; intros s0 Hs; cbn [fold_left]; [exact Hs|]. apply IHl. apply add_cut_Cinv. exact Hs. }
    assert (G2 : forall l s0, Forall Cinv s0 -> Forall Cinv (fold_left (fun s1 i0 => map_at advance_one s1 i0) l s0)).
    { induction l as [|x t IHl]; intros s0 Hs; cbn [fold_left]; [exact Hs|]. apply IHl. apply advance_at_Cinv. exact Hs. }
    apply G2. apply G1. exact H.
Qed.

Lemma sorted_nth : forall {A} (Rr : A -> A -> Prop) v i j x y, StronglySorted Rr v ->
  nth_error v i = Some x -> nth_error v j = Some y -> (i < j)%nat -> Rr x y.
Proof.
  intros A Rr. induction v as [|a t IH]; intros i j x y Hs Hi Hj Hij; [destruct i; discriminate|].
  inversion Hs as [|? ? Hs' Hall]; subst. destruct j as [|j]; [lia|]. cbn [nth_error] in Hj.
  destruct i as [|i].
  - cbn [nth_error] in Hi. injection Hi as <-. rewrite Forall_forall in Hall. apply Hall. eapply nth_error_In. exact Hj.
  - cbn [nth_error] in Hi. apply (IH i j x y Hs' Hi Hj). lia.
Qed.

Lemma pick_sorted : forall {A} (Rr : A -> A -> Prop) (v : list A) idxs cs, StronglySorted Rr v -> StronglySorted N.lt idxs ->
  fold_right (fun i acc => do l <- acc; match nth_error v (N.to_nat i) with Some x => Ok (x :: l) | None => Panic 1701 end) (Ok []) idxs = Ok cs ->
  StronglySorted Rr cs /\ forall y, In y cs -> exists j, In j idxs /\ nth_error v (N.to_nat j) = Some y.
Proof.
  intros A Rr v. induction idxs as [|i t IH]; intros cs Hv Hi H; cbn [fold_right] in H.
  - injection H as <-. split; [constructor|intros y []].
  - inversion Hi as [|? ? Hi' Hall]; subst.
    destruct (fold_right _ (Ok []) t) as [l| |] eqn:E; cbn [bind] in H; try discriminate.
    destruct (nth_error v (N.to_nat i)) as [x|] eqn:Ex; [|discriminate]. injection H as <-.
    destruct (IH l Hv Hi' eq_refl) as [S1 S2]. split.
    + constructor; [exact S1|]. apply Forall_forall. intros y Hy. destruct (S2 y Hy) as (j & Hj & Ej).
      rewrite Forall_forall in Hall. specialize (Hall j Hj). apply (sorted_nth Rr v (N.to_nat i) (N.to_nat j) x y Hv Ex Ej). lia.
    + intros y [<-|Hy]; [exists i; split; [left; reflexivity|exact Ex]|].
      destruct (S2 y Hy) as (j & Hj & Ej). exists j. split; [right; exact Hj|exact Ej].
Qed.

Lemma seqN_sorted : forall n start, StronglySorted N.lt (seqN start n) /\ Forall (fun x => start <= x < start + N.of_nat n) (seqN start n).
Proof.
  induction n as [|n IH]; intros start; cbn [seqN]; [split; constructor|].
  destruct (IH (start + 1)) as [S1 S2]. split.
  - constructor; [exact S1|]. eapply Forall_impl; [|exact S2]. cbv beta. intros; lia.
  - constructor; [lia|]. eapply Forall_impl; [|exact S2]. cbv beta. intros; lia.
Qed.

Lemma prune_indices_sorted : forall n i last prefix pool rem,
  StronglySorted N.lt (prune_indices n i last prefix pool rem) /\ Forall (fun x => last < x) (prune_indices n i last prefix pool rem).
Proof.
  induction n as [|n IH]; intros i last prefix pool rem; cbn [prune_indices]; [split; constructor|]. cbv zeta.
  set (nat_idx := prefix + (2 * i * i * (pool - 1) + (rem - 1) * (rem - 1)) / (2 * ((rem - 1) * (rem - 1)))).
  set (idx := if nat_idx <=? last then last + 1 else nat_idx).
  assert (Hidx : last < idx) by (unfold idx; destruct (N.leb_spec nat_idx last); lia).
  destruct (IH (i + 1) idx prefix pool rem) as [S1 S2]. split.
  - constructor; [exact S1|exact S2].
  - constructor; [exact Hidx|]. eapply Forall_impl; [|exact S2]. cbv beta. intros; lia.
Qed.

Lemma prune_sorted : forall {A} (Rr : A -> A -> Prop) (v cs : list A),
  StronglySorted Rr v ->
  prune_progressive v SCHED_BATCH_PRUNING_FIXED_PREFIX SCHED_BATCH_PRUNING_MAX_SIZE = Ok cs -> StronglySorted Rr cs.
Proof.
  intros A Rr v cs Hv H. unfold prune_progressive in H.
  destruct (nlen v <=? SCHED_BATCH_PRUNING_MAX_SIZE); [injection H as <-; exact Hv|]. cbv zeta in H.
  refine (proj1 (pick_sorted Rr v _ cs Hv _ H)).
  set (prefix := SCHED_BATCH_PRUNING_FIXED_PREFIX).
  destruct (seqN_sorted (N.to_nat prefix) 0) as [S1 S2].
  destruct (prune_indices_sorted (N.to_nat (SCHED_BATCH_PRUNING_MAX_SIZE - prefix)) 0 (prefix - 1) prefix (nlen v - prefix)
              (SCHED_BATCH_PRUNING_MAX_SIZE - prefix)) as [P1 P2].
  assert (G : forall a b, StronglySorted N.lt a -> StronglySorted N.lt b -> (forall x y, In x a -> In y b -> x < y) -> StronglySorted N.lt (a ++ b)).
  { induction a as [|x t IHa]; intros b Ha Hb Hab; cbn [app]; [exact Hb|].
    inversion Ha as [|? ? Ha' Hall]; subst. constructor.
    - apply IHa; [exact Ha'|exact Hb|]. intros x0 y Hx0 Hy. apply Hab; [right; exact Hx0|exact Hy].
    - apply Forall_app. split; [exact Hall|]. apply Forall_forall. intros y Hy. apply Hab; [left; reflexivity|exact Hy]. }
  apply G; [exact S1|exact P1|].
  intros x y Hx Hy. rewrite Forall_forall in S2, P2. specialize (S2 x Hx). specialize (P2 y Hy).
  unfold prefix, SCHED_BATCH_PRUNING_FIXED_PREFIX in *. lia.
Qed.

Theorem batches_cuts_sorted : forall I bs b, create_task_batches I = Ok bs -> In b bs -> StronglySorted le_size (b_cuts b).
Proof.
  intros I bs b H Hb. unfold create_task_batches in H.
  set (st0 := map _ (filter _ _)) in H. set (fuel := S _) in H.
  assert (H0 : Forall Cinv st0).
  { unfold st0. apply Forall_forall. intros e He. apply in_map_iff in He. destruct He as (x & <- & _).
    unfold Cinv. cbn [fst b_cuts b_size b_limit]. split; [constructor|]. split; [constructor|lia]. }
  pose proof (merge_loop_Cinv fuel st0 None H0) as Hst.
  destruct (collect_res _) as [pruned| |] eqn:E; cbn [bind] in H; try discriminate. injection H as <-.
  apply filter_In in Hb. destruct Hb as [Hb _].
  destruct (collect_res_out _ _ _ _ E Hb) as (e & He & Hf).
  destruct (prune_progressive (b_cuts (fst e)) _ _) as [cs| |] eqn:Ep; cbn [bind] in Hf; try discriminate.
  injection Hf as <-. cbn [set_cuts b_cuts].
  rewrite Forall_forall in Hst. destruct (Hst e He) as (S1 & _).
  apply (prune_sorted le_size _ _ S1 Ep).
Qed.

(** * C15: semantics of the cut rows - aggregate bound over the zero-gap workers, unbounded blocker *)
Theorem cut_semantics_zero_unbounded_batches : forall I bs m s b c h,
  create_task_batches I = Ok bs -> milp_of I bs = Ok m -> feasible m s = true ->
  In b bs -> count_vars I bs (b_rq b) <> [] -> In c (b_cuts b) -> In (h, None) (c_blockers c) ->
  (zero_sum I bs s h (b_rq b) (i_workers I) <= Z.of_N (c_size c))%Z.
Proof.
  intros I bs m s b c h Hbs Hm Hf Hb Hcv Hc Hbl.
  apply (cut_semantics_zero_unbounded I bs m s b c h Hm Hf Hb Hcv (batches_cuts_sorted I bs b Hbs Hb) Hc Hbl).
Qed.

(** the hypotheses are satisfiable: class 0 hits its limit, the last cut of class 1 names it as an
    unbounded blocker, the gap of the worker is zero (so the aggregate row is the only bound) *)
Example zero_unbounded_instance :
  let I := yinst 11 9 [1] 3 2 [(9, [1; 2]); (5, [3]); (2, [4; 5])] [(7, [11]); (5, [12; 13]); (3, [14]); (1, [15])] in
  exists bs m b c, create_task_batches I = Ok bs /\ milp_of I bs = Ok m /\ In b bs /\ b_rq b = 1
    /\ count_vars I bs (b_rq b) <> [] /\ In c (b_cuts b) /\ c_size c = 4 /\ In (0, None) (c_blockers c)
    /\ zero_gap I (xworker 11 9 [1]) 0 1 = true
    /\ feasible m (fun v => match v with VX 1 0 => 2%Z | VX 1 1 => 1%Z | VB 0 3 => 1%Z | VB 1 4 => 1%Z | _ => 0%Z end) = true.
Proof.
  cbv zeta. eexists. eexists. eexists. eexists.
  split; [vm_compute; reflexivity|]. split; [vm_compute; reflexivity|].
  split; [right; left; reflexivity|]. split; [reflexivity|]. split; [vm_compute; discriminate|].
  split; [right; right; right; left; reflexivity|]. split; [reflexivity|]. split; [left; reflexivity|].
  split; vm_compute; reflexivity.
Qed.

Print Assumptions cut_semantics_zero_unbounded_batches.
