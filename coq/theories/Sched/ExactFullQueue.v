(** C15, exact class with interleaved levels: what an accepted dispatch ([mapping_ok]) says about which
    tasks of a class run (its top ones, all on the one worker) and what the "fits without the lower
    tasks" test of the inversion predicate means in numbers. *)
From HQ Require Import Base.Prelude Gen.Consts Sched.Model Sched.ProofsOrder Sched.ProofsRows Sched.ProofsCuts
  Sched.ProofsExact Sched.ExactFullMerge Sched.ExactFullInst.
Require Import ZifyBool ZifyN ZifyNat.
From Coq Require Import Sorting.Sorted.
Open Scope N_scope.
Local Arguments N.add : simpl never. Local Arguments N.sub : simpl never. Local Arguments N.mul : simpl never.
Local Arguments N.eqb : simpl never. Local Arguments N.ltb : simpl never. Local Arguments N.leb : simpl never.
Local Arguments N.of_nat : simpl never. Local Arguments N.to_nat : simpl never. Local Arguments N.div : simpl never.
Local Arguments N.min : simpl never. Local Arguments N.max : simpl never.

Lemma filter_all : forall {A} (f : A -> bool) l, (forall x, In x l -> f x = true) -> filter f l = l.
Proof.
  intros A f l. induction l as [|x t IH]; intros H; cbn [filter]; [reflexivity|].
  rewrite (H x (or_introl eq_refl)). f_equal. apply IH. intros y Hy. apply H. right. assumption.
Qed.
Lemma filter_none : forall {A} (f : A -> bool) l, (forall x, In x l -> f x = false) -> filter f l = [].
Proof.
  intros A f l. induction l as [|x t IH]; intros H; cbn [filter]; [reflexivity|].
  rewrite (H x (or_introl eq_refl)). apply IH. intros y Hy. apply H. right. assumption.
Qed.
Lemma filter_len_le : forall {A} (f : A -> bool) l, (length (filter f l) <= length l)%nat.
Proof. intros A f l. induction l as [|x t IH]; cbn [filter length]; [lia|]. destruct (f x); cbn [length]; lia. Qed.
Lemma filter_len_pos : forall {A} (f : A -> bool) l x, In x l -> f x = true -> (1 <= length (filter f l))%nat.
Proof.
  intros A f l x Hin Hf. assert (H : In x (filter f l)) by (apply filter_In; auto).
  destruct (filter f l); [contradiction|cbn [length]; lia].
Qed.
Lemma filter_len_lt : forall {A} (f : A -> bool) l x, In x l -> f x = false -> (length (filter f l) < length l)%nat.
Proof.
  intros A f l x. induction l as [|y t IH]; intros Hin Hf; [contradiction|]. cbn [filter length].
  destruct Hin as [->|Hin].
  - rewrite Hf. pose proof (filter_len_le f t). lia.
  - specialize (IH Hin Hf). destruct (f y); cbn [length]; lia.
Qed.
Lemma filter_len_all : forall {A} (f : A -> bool) l, length (filter f l) = length l -> forall x, In x l -> f x = true.
Proof.
  intros A f l H x Hin. destruct (f x) eqn:E; [reflexivity|]. pose proof (filter_len_lt f l x Hin E). lia.
Qed.
Lemma filter_filter : forall {A} (f g : A -> bool) l, filter f (filter g l) = filter (fun x => g x && f x) l.
Proof.
  intros A f g l. induction l as [|x t IH]; cbn [filter]; [reflexivity|].
  destruct (g x); cbn [filter andb]; [destruct (f x); rewrite IH; reflexivity|exact IH].
Qed.

Lemma sorted_insert_len : forall x l, length (sorted_insert x l) = S (length l).
Proof. intros x l. induction l as [|y t IH]; cbn [sorted_insert length]; [reflexivity|]. destruct (x <=? y); cbn [length]; lia. Qed.
Lemma sortN_len : forall l, length (sortN l) = length l.
Proof. induction l as [|x t IH]; cbn [sortN fold_right length]; [reflexivity|]. fold (sortN t). rewrite sorted_insert_len, IH. reflexivity. Qed.

Section Pop.
Variables (FL : list (N * N)) (n : nat).
Hypothesis Hsorted : StronglySorted before FL.
Hypothesis Hn : (n <= length FL)%nat.

Lemma pop_waiting : forall p i, In (p, i) FL -> ~ In i (map snd (firstn n FL)) ->
  (forall x, In x (firstn n FL) -> p <= fst x)
  /\ N.of_nat n < nlen (filter (fun t : N * N => p <=? fst t) FL).
Proof.
  intros p i Hin Hnot.
  assert (Hsk : In (p, i) (skipn n FL)).
  { rewrite <- (firstn_skipn n FL) in Hin. apply in_app_or in Hin. destruct Hin as [Hin|Hin]; [|assumption].
    exfalso. apply Hnot. apply in_map_iff. exists (p, i). auto. }
  assert (Hall : forall x, In x (firstn n FL) -> p <= fst x).
  { intros x Hx. pose proof Hsorted as Hs. rewrite <- (firstn_skipn n FL) in Hs.
    pose proof (sorted_app_rel before _ _ Hs x (p, i) Hx Hsk) as Hb. unfold before in Hb. cbn [fst snd] in Hb. lia. }
  split; [exact Hall|].
  rewrite <- (firstn_skipn n FL) at 1. rewrite filter_app, nlen_app.
  rewrite (filter_all _ (firstn n FL)) by (intros x Hx; apply N.leb_le; auto).
  pose proof (filter_len_pos (fun t : N * N => p <=? fst t) (skipn n FL) (p, i) Hsk ltac:(cbn [fst]; apply N.leb_le; lia)).
  unfold nlen. rewrite firstn_length_le by assumption. lia.
Qed.

Lemma pop_running : forall q i, In (q, i) (firstn n FL) ->
  (forall x, In x FL -> q < fst x -> In x (firstn n FL))
  /\ nlen (filter (fun t : N * N => q <? fst t) FL) < N.of_nat n.
Proof.
  intros q i Hin.
  assert (Hsk : forall y, In y (skipn n FL) -> fst y <= q).
  { intros y Hy. pose proof Hsorted as Hs. rewrite <- (firstn_skipn n FL) in Hs.
    pose proof (sorted_app_rel before _ _ Hs (q, i) y Hin Hy) as Hb. unfold before in Hb. cbn [fst snd] in Hb. lia. }
  split.
  - intros x Hx Hq. rewrite <- (firstn_skipn n FL) in Hx. apply in_app_or in Hx. destruct Hx as [Hx|Hx]; [assumption|].
    specialize (Hsk x Hx). lia.
  - rewrite <- (firstn_skipn n FL) at 1. rewrite filter_app, nlen_app.
    rewrite (filter_none _ (skipn n FL)) by (intros y Hy; apply N.ltb_ge; auto).
    pose proof (filter_len_lt (fun t : N * N => q <? fst t) (firstn n FL) (q, i) Hin ltac:(cbn [fst]; apply N.ltb_ge; lia)) as Hl.
    rewrite firstn_length_le in Hl by assumption. unfold nlen. cbn [length]. lia.
Qed.
End Pop.

Definition ctasks (Z : N) (q : list (N * list N)) : list dtask :=
  concat (map (fun e : N * list N => map (fun id => {| t_id := id; t_rq := Z; t_prio := fst e |}) (snd e)) q).

Lemma ctasks_in : forall Z q t, In t (ctasks Z q) -> t_rq t = Z /\ In (t_prio t, t_id t) (flat_tasks q).
Proof.
  intros Z q t Ht. unfold ctasks in Ht. unfold flat_tasks. apply in_concat in Ht. destruct Ht as (l & Hl & Ht).
  apply in_map_iff in Hl. destruct Hl as (e & <- & He). apply in_map_iff in Ht. destruct Ht as (id & <- & Hid).
  cbn [t_rq t_prio t_id]. split; [reflexivity|]. apply in_concat. exists (map (fun id0 => (fst e, id0)) (snd e)). split.
  - apply in_map_iff. exists e. auto.
  - apply in_map_iff. exists id. auto.
Qed.

Lemma flat_prio_level : forall q p i, In (p, i) (flat_tasks q) -> In p (map fst (levels q)).
Proof.
  intros q p i H. unfold flat_tasks in H. apply in_concat in H. destruct H as (l & Hl & H).
  apply in_map_iff in Hl. destruct Hl as (e & <- & He). apply in_map_iff in H. destruct H as (id & E & _).
  inversion E; subst. unfold levels. rewrite map_map. cbn [fst]. apply in_map_iff. exists e. auto.
Qed.

Section YQ.
Variables (R F : N) (assigned : list N) (a0 a1 : N) (q0 q1 : list (N * list N)).
Hypothesis Hw0 : ready_wf q0.
Hypothesis Hw1 : ready_wf q1.
Hypothesis Hnd0 : NoDup (flat_ids q0).
Hypothesis Hnd1 : NoDup (flat_ids q1).

Let I := yinst R F assigned a0 a1 q0 q1.
Let W := xworker R F assigned.

Definition qz (Z : N) : list (N * list N) := if Z =? 0 then q0 else q1.
Definition az (Z : N) : N := if Z =? 0 then a0 else a1.

Lemma qz_wf : forall Z, ready_wf (qz Z).
Proof. intros Z. unfold qz. destruct (Z =? 0); assumption. Qed.
Lemma qz_nodup : forall Z, NoDup (map snd (flat_tasks (qz Z))).
Proof. intros Z. rewrite <- flat_ids_tasks. unfold qz. destruct (Z =? 0); assumption. Qed.

Lemma y_ready : ready_tasks I = ctasks 0 q0 ++ ctasks 1 q1.
Proof.
  unfold ready_tasks, ctasks. cbn [I yinst i_queues mapi_from concat q_ready map snd fst].
  rewrite !app_nil_r. reflexivity.
Qed.

Lemma ready_cases : forall t, In t (ready_tasks I) ->
  (t_rq t = 0 \/ t_rq t = 1) /\ In (t_prio t, t_id t) (flat_tasks (qz (t_rq t))).
Proof.
  intros t Ht. rewrite y_ready in Ht. apply in_app_or in Ht.
  destruct Ht as [Ht|Ht]; apply ctasks_in in Ht; destruct Ht as [Hr Hf]; rewrite Hr; [split; [left; reflexivity|exact Hf]|split; [right; reflexivity|exact Hf]].
Qed.

Definition cls (Z : N) (pr : N * N) : bool :=
  match find_task (ready_tasks I) (fst pr) with Some t => t_rq t =? Z | None => false end.

Lemma count_on_cls : forall d Z, count_on I d 1 Z = nlen (filter (fun pr => (snd pr =? 1) && cls Z pr) d).
Proof. reflexivity. Qed.

(** what [mapping_ok] says about class [Z] *)
Definition MZ (s : sol) (d : dispatch) (Z : N) : Prop :=
  (N.to_nat (sol_x s 1 Z) <= length (flat_tasks (qz Z)))%nat
  /\ sortN (map snd (firstn (N.to_nat (sol_x s 1 Z)) (flat_tasks (qz Z)))) = sortN (map fst (filter (cls Z) d))
  /\ count_on I d 1 Z = sol_x s 1 Z.

Lemma mapping_MZ : forall bs s d b Z, ready_wf (qz Z) -> mapping_ok I bs s d = true -> In b bs -> b_rq b = Z -> (Z = 0 \/ Z = 1) ->
  has_x I bs W Z = true -> MZ s d Z.
Proof.
  intros bs s d b Z HwZ Hmap Hb Hrq HZ Hx. unfold mapping_ok in Hmap. apply andb_true_iff in Hmap. destruct Hmap as [Hmap _].
  rewrite forallb_forall in Hmap. specialize (Hmap b Hb). rewrite Hrq in Hmap.
  assert (Hq : nth (N.to_nat Z) (i_queues I) empty_queue = {| q_ready := qz Z; q_prefill := None |})
    by (destruct HZ as [->| ->]; reflexivity).
  rewrite Hq in Hmap.
  assert (Hpt : placed_total I bs s Z = sol_x s 1 Z).
  { unfold placed_total. cbn [I yinst i_workers fold_right]. fold I. fold W. rewrite Hx. change (w_id W) with 1. lia. }
  rewrite Hpt in Hmap.
  destruct (take_tasks {| q_ready := qz Z; q_prefill := None |} (sol_x s 1 Z)) as [[taken q']| |] eqn:T; try discriminate.
  apply andb_true_iff in Hmap. destruct Hmap as [Heq Hcnt]. apply list_eqb_eq in Heq.
  destruct (take_tasks_order {| q_ready := qz Z; q_prefill := None |} _ _ _ eq_refl HwZ T) as (_ & Htaken & _). cbn [q_ready] in Htaken.
  split; [|split].
  - unfold take_tasks in T. cbn [q_prefill q_ready] in T.
    destruct (take_loop (qz Z) (sol_x s 1 Z)) as [[l rd]| |] eqn:TL; cbn [bind] in T; try discriminate.
    destruct (take_loop_spec _ _ _ _ TL) as (_ & _ & H3). rewrite flat_ids_tasks in H3. unfold nlen in H3. rewrite map_length in H3. lia.
  - rewrite <- Htaken. exact Heq.
  - cbn [I yinst i_workers forallb] in Hcnt. fold I in Hcnt. fold W in Hcnt. rewrite Hx in Hcnt. change (w_id W) with 1 in Hcnt.
    apply andb_true_iff in Hcnt. destruct Hcnt as [Hc _]. apply N.eqb_eq in Hc. exact Hc.
Qed.

Section Cls.
Variables (s : sol) (d : dispatch) (Z : N).
Hypothesis HM : MZ s d Z.
Let x := N.to_nat (sol_x s 1 Z).
Let FL := flat_tasks (qz Z).

Lemma taken_iff : forall id, In id (map snd (firstn x FL)) <-> In id (map fst (filter (cls Z) d)).
Proof.
  intros id. destruct HM as (_ & Heq & _). fold x FL in Heq.
  rewrite <- (sortN_in (map snd (firstn x FL))), Heq, sortN_in. tauto.
Qed.

Lemma cls_len : length (filter (cls Z) d) = x.
Proof.
  destruct HM as (Hle & Heq & _). fold x FL in Hle, Heq.
  apply (f_equal (@length N)) in Heq. rewrite !sortN_len, !map_length in Heq. rewrite firstn_length_le in Heq by assumption. lia.
Qed.

Lemma cls_on_worker : forall pr, In pr d -> cls Z pr = true -> snd pr = 1.
Proof.
  intros pr Hpr Hc. destruct HM as (_ & _ & Hcnt). rewrite count_on_cls in Hcnt.
  assert (Hf : filter (fun pr0 : N * N => (snd pr0 =? 1) && cls Z pr0) d = filter (fun pr0 => snd pr0 =? 1) (filter (cls Z) d)).
  { rewrite filter_filter. apply filter_ext. intros a. apply andb_comm. }
  rewrite Hf in Hcnt. unfold nlen in Hcnt.
  assert (Hlen : length (filter (fun pr0 : N * N => snd pr0 =? 1) (filter (cls Z) d)) = length (filter (cls Z) d))
    by (rewrite cls_len; fold x; lia).
  pose proof (filter_len_all _ _ Hlen pr ltac:(apply filter_In; auto)) as H1. apply N.eqb_eq in H1. exact H1.
Qed.

Lemma running_first : forall pr t, NoDup (map snd FL) -> In pr d -> find_task (ready_tasks I) (fst pr) = Some t -> t_rq t = Z ->
  In (t_prio t, t_id t) (firstn x FL).
Proof.
  intros pr t HndZ Hpr Hft Hrq. pose proof Hft as Hft0. apply find_task_in in Hft. destruct Hft as [Hin Hid].
  destruct (ready_cases t Hin) as [_ Hfl]. rewrite Hrq in Hfl. fold FL in Hfl.
  assert (Hc : cls Z pr = true) by (unfold cls; rewrite Hft0; apply N.eqb_eq; exact Hrq).
  assert (Hid2 : In (t_id t) (map snd (firstn x FL))).
  { apply taken_iff. rewrite Hid. apply in_map. apply filter_In. auto. }
  apply in_map_iff in Hid2. destruct Hid2 as ([p' i'] & Hi & Hf). cbn [snd] in Hi. subst i'.
  assert (Hp : p' = t_prio t).
  { apply (nodup_snd_inj FL p' (t_prio t) (t_id t)); [exact HndZ| |assumption].
    rewrite <- (firstn_skipn x FL). apply in_or_app. left. assumption. }
  subst p'. exact Hf.
Qed.

Lemma waiting_not_first : forall u, dispatched d (t_id u) = false -> ~ In (t_id u) (map snd (firstn x FL)).
Proof.
  intros u Hnd Hin. apply taken_iff in Hin. apply in_map_iff in Hin. destruct Hin as (pr & Hpr & Hf).
  apply filter_In in Hf. destruct Hf as [Hd _]. unfold dispatched in Hnd.
  assert (Hex : existsb (fun p0 : N * N => fst p0 =? t_id u) d = true).
  { apply existsb_exists. exists pr. split; [assumption|]. apply N.eqb_eq. assumption. }
  congruence.
Qed.

Lemma pop_x_le : (x <= length FL)%nat.
Proof. destruct HM as (Hle & _). exact Hle. Qed.

End Cls.
End YQ.

Section YK.
Variables (R F : N) (assigned : list N) (a0 a1 : N) (q0 q1 : list (N * list N)).
Hypothesis Hw0 : ready_wf q0.
Hypothesis Hw1 : ready_wf q1.
Hypothesis Hnd0 : NoDup (flat_ids q0).
Hypothesis Hnd1 : NoDup (flat_ids q1).

Let I := yinst R F assigned a0 a1 q0 q1.
Let W := xworker R F assigned.
Let qz := qz q0 q1.
Let az := az a0 a1.
Let cls := cls R F assigned a0 a1 q0 q1.
Let MZ := MZ R F assigned a0 a1 q0 q1.

Definition keepf (p : N) (pr : N * N) : list N :=
  if snd pr =? 1 then
    match find_task (ready_tasks I) (fst pr) with
    | Some t => if p <=? t_prio t then [t_rq t] else []
    | None => []
    end
  else [].

Definition clsp (Z p : N) (pr : N * N) : bool :=
  match find_task (ready_tasks I) (fst pr) with Some t => (t_rq t =? Z) && (p <=? t_prio t) | None => false end.

Definition cntK (Z : N) (K : list N) : N := nlen (filter (N.eqb Z) K).

Lemma keep_count : forall Z p d,
  cntK Z (concat (map (keepf p) d)) = nlen (filter (fun pr => (snd pr =? 1) && clsp Z p pr) d).
Proof.
  intros Z p d. induction d as [|pr d IH]; [reflexivity|].
  cbn [map concat filter]. unfold cntK in *. rewrite filter_app, nlen_app, IH.
  unfold keepf, clsp. destruct (snd pr =? 1); cbn [andb]; [|reflexivity].
  destruct (find_task (ready_tasks I) (fst pr)) as [t|]; [|reflexivity].
  destruct (p <=? t_prio t); cbn [filter].
  - rewrite (N.eqb_sym Z). destruct (t_rq t =? Z); cbn [andb]; unfold nlen; cbn [length]; lia.
  - rewrite Bool.andb_false_r. reflexivity.
Qed.

Lemma keep_classes : forall p d k, In k (concat (map (keepf p) d)) -> k = 0 \/ k = 1.
Proof.
  intros p d k Hk. apply in_concat in Hk. destruct Hk as (l & Hl & Hk). apply in_map_iff in Hl. destruct Hl as (pr & <- & _).
  unfold keepf in Hk. destruct (snd pr =? 1); [|contradiction].
  destruct (find_task (ready_tasks I) (fst pr)) as [t|] eqn:E; [|contradiction].
  destruct (p <=? t_prio t); [|contradiction]. destruct Hk as [<-|[]].
  apply find_task_in in E. destruct E as [Hin _].
  apply (ready_cases R F assigned a0 a1 q0 q1 t Hin).
Qed.

Lemma sub1 : forall x a, rv_sub_checked [x] [(0, a)] = if a <=? x then Some [x - a] else None.
Proof. intros x a. cbn [rv_sub_checked length]. change (Nat.ltb (N.to_nat 0) 1) with true. cbn [andb]. change (rv_get [x] 0) with x. destruct (a <=? x); reflexivity. Qed.

Lemma sub_all_y : forall K x v, sub_all I [x] K = Some v -> (forall k, In k K -> k = 0 \/ k = 1) ->
  v = [x - (a0 * cntK 0 K + a1 * cntK 1 K)] /\ a0 * cntK 0 K + a1 * cntK 1 K <= x.
Proof.
  induction K as [|k K IH]; intros x v H Hk.
  - cbn [sub_all] in H. injection H as <-. unfold cntK, nlen. cbn [filter length]. split; [f_equal; lia|lia].
  - cbn [sub_all] in H.
    assert (Hc : forall z, cntK z (k :: K) = (if z =? k then 1 else 0) + cntK z K).
    { intros z. unfold cntK. cbn [filter]. destruct (z =? k); unfold nlen; cbn [length]; lia. }
    rewrite !Hc.
    destruct (Hk k (or_introl eq_refl)) as [->| ->].
    + change (req_of I 0) with [(0, a0)] in H. rewrite sub1 in H.
      destruct (N.leb_spec a0 x) as [Hle|]; [|discriminate].
      destruct (IH _ _ H (fun k' Hk' => Hk k' (or_intror Hk'))) as [-> Hb].
      change (0 =? 0) with true. change (1 =? 0) with false. split; [f_equal; lia|lia].
    + change (req_of I 1) with [(0, a1)] in H. rewrite sub1 in H.
      destruct (N.leb_spec a1 x) as [Hle|]; [|discriminate].
      destruct (IH _ _ H (fun k' Hk' => Hk k' (or_intror Hk'))) as [-> Hb].
      change (0 =? 1) with false. change (1 =? 1) with true. split; [f_equal; lia|lia].
Qed.

Lemma fits_unfold : forall d u, fits_without_lower I d W u = true ->
  exists v, sub_all I [F] (concat (map (keepf (t_prio u)) d)) = Some v /\ capable_res v (req_of I (t_rq u)) = true.
Proof.
  intros d u H. unfold fits_without_lower in H. change (inst_on I W) with I in H. change (w_free W) with [F] in H.
  change (w_id W) with 1 in H. fold (keepf (t_prio u)) in H.
  destruct (sub_all I [F] (concat (map (keepf (t_prio u)) d))) as [v|]; [|discriminate]. exists v. auto.
Qed.

(** inside a class the dispatched tasks are its top ones *)
Lemma same_class_order_y : forall s d Z (u t : dtask) (pr : N * N), MZ s d Z ->
  ready_wf (qz Z) -> NoDup (map snd (flat_tasks (qz Z))) -> In u (ready_tasks I) -> dispatched d (t_id u) = false -> In pr d ->
  find_task (ready_tasks I) (fst pr) = Some t -> t_prio t < t_prio u -> t_rq u = Z -> t_rq t = Z -> False.
Proof.
  intros s d Z u t pr HM HwZ HndZ Hu Hundisp Hpr Hft Hprio HuZ HtZ.
  assert (Hfl : In (t_prio u, t_id u) (flat_tasks (qz Z))).
  { destruct (ready_cases R F assigned a0 a1 q0 q1 u Hu) as [_ H]. rewrite HuZ in H. exact H. }
  pose proof (pop_waiting (flat_tasks (qz Z)) (N.to_nat (sol_x s 1 Z)) (flat_tasks_sorted _ HwZ)
                (pop_x_le R F assigned a0 a1 q0 q1 s d Z HM) (t_prio u) (t_id u) Hfl
                (waiting_not_first R F assigned a0 a1 q0 q1 s d Z HM u Hundisp)) as [H1 _].
  pose proof (running_first R F assigned a0 a1 q0 q1 s d Z HM pr t HndZ Hpr Hft HtZ) as Hin.
  specialize (H1 _ Hin). cbn [fst] in H1. lia.
Qed.

Section Two.
Variables (s : sol) (d : dispatch) (X Y : N).
Hypothesis HXY : (X = 0 /\ Y = 1) \/ (X = 1 /\ Y = 0).
Hypothesis HMX : MZ s d X.
Hypothesis HMY : MZ s d Y.
Variables (u t : dtask) (pr : N * N).
Hypothesis Hu : In u (ready_tasks I).
Hypothesis Hundisp : dispatched d (t_id u) = false.
Hypothesis Hpr : In pr d.
Hypothesis Hft : find_task (ready_tasks I) (fst pr) = Some t.
Hypothesis Hprio : t_prio t < t_prio u.
Hypothesis HuX : t_rq u = X.

Let p := t_prio u.
Let q := t_prio t.
Let xX := sol_x s 1 X.
Let xY := sol_x s 1 Y.

Lemma u_flat : In (p, t_id u) (flat_tasks (qz X)).
Proof. destruct (ready_cases R F assigned a0 a1 q0 q1 u Hu) as [_ H]. rewrite HuX in H. exact H. Qed.

Lemma waiting_facts :
  (forall x, In x (firstn (N.to_nat xX) (flat_tasks (qz X))) -> p <= fst x)
  /\ xX < sum_ge p (levels (qz X)).
Proof.
  pose proof (pop_waiting (flat_tasks (qz X)) (N.to_nat xX) (flat_tasks_sorted _ (qz_wf q0 q1 Hw0 Hw1 X))
                (pop_x_le R F assigned a0 a1 q0 q1 s d X HMX) p (t_id u) u_flat
                (waiting_not_first R F assigned a0 a1 q0 q1 s d X HMX u Hundisp)) as [H1 H2].
  split; [exact H1|]. rewrite sum_ge_flat. unfold xX in *. lia.
Qed.

Lemma classes_differ : t_rq t <> X.
Proof.
  intros HtX. destruct waiting_facts as [H1 _].
  pose proof (running_first R F assigned a0 a1 q0 q1 s d X HMX pr t (qz_nodup q0 q1 Hnd0 Hnd1 X) Hpr Hft HtX) as Hin.
  specialize (H1 _ Hin). cbn [fst] in H1. unfold p in H1. lia.
Qed.

Hypothesis HtY : t_rq t = Y.

Lemma running_facts :
  (forall x, In x (flat_tasks (qz Y)) -> q < fst x -> In x (firstn (N.to_nat xY) (flat_tasks (qz Y))))
  /\ sum_gt q (levels (qz Y)) < xY /\ In q (map fst (levels (qz Y))).
Proof.
  pose proof (running_first R F assigned a0 a1 q0 q1 s d Y HMY pr t (qz_nodup q0 q1 Hnd0 Hnd1 Y) Hpr Hft HtY) as Hin.
  destruct (pop_running (flat_tasks (qz Y)) (N.to_nat xY) (flat_tasks_sorted _ (qz_wf q0 q1 Hw0 Hw1 Y))
              (pop_x_le R F assigned a0 a1 q0 q1 s d Y HMY) q (t_id t) Hin) as [H1 H2].
  split; [exact H1|]. split.
  - rewrite sum_gt_flat. unfold xY in *. lia.
  - apply (flat_prio_level (qz Y) q (t_id t)). rewrite <- (firstn_skipn (N.to_nat xY)). apply in_or_app. left. exact Hin.
Qed.

(** every dispatched X task is kept (priority >= p) ... *)
Lemma keepX_count : nlen (filter (fun pr0 => (snd pr0 =? 1) && clsp X p pr0) d) = xX.
Proof.
  destruct waiting_facts as [H1 _].
  destruct HMX as (_ & _ & Hcnt). unfold xX. rewrite <- Hcnt. rewrite (count_on_cls R F assigned a0 a1 q0 q1 d X).
  f_equal. apply filter_ext_in. intros pr0 Hpr0. f_equal. unfold clsp, ExactFullQueue.cls. fold I.
  destruct (find_task (ready_tasks I) (fst pr0)) as [t0|] eqn:E; [|reflexivity].
  destruct (N.eqb_spec (t_rq t0) X) as [Hr|]; [|reflexivity]. cbn [andb].
  pose proof (running_first R F assigned a0 a1 q0 q1 s d X HMX pr0 t0 (qz_nodup q0 q1 Hnd0 Hnd1 X) Hpr0 E Hr) as Hin.
  specialize (H1 _ Hin). cbn [fst] in H1. apply N.leb_le. exact H1.
Qed.

(** ... and so is every Y task of priority >= p *)
Lemma keepY_count : sum_ge p (levels (qz Y)) <= nlen (filter (fun pr0 => (snd pr0 =? 1) && clsp Y p pr0) d).
Proof.
  destruct running_facts as (H1 & _ & _).
  rewrite sum_ge_flat. unfold nlen.
  set (L := map snd (filter (fun t0 : N * N => p <=? fst t0) (flat_tasks (qz Y)))).
  set (M := map fst (filter (fun pr0 => (snd pr0 =? 1) && clsp Y p pr0) d)).
  assert (Hnd : NoDup L) by (apply map_filter_sub; apply (qz_nodup q0 q1 Hnd0 Hnd1)).
  assert (Hincl : incl L M).
  { intros id Hid. unfold L in Hid. apply in_map_iff in Hid. destruct Hid as ([p' i'] & Hi & Hf). cbn [snd] in Hi. subst i'.
    apply filter_In in Hf. destruct Hf as [Hfl Hp']. cbn [fst] in Hp'. apply N.leb_le in Hp'.
    assert (Hfirst : In (p', id) (firstn (N.to_nat xY) (flat_tasks (qz Y)))) by (apply H1; [assumption|cbn [fst]; unfold q, p in *; lia]).
    assert (Hid : In id (map fst (filter (cls Y) d))).
    { apply (taken_iff R F assigned a0 a1 q0 q1 s d Y HMY). apply in_map_iff. exists (p', id). auto. }
    apply in_map_iff in Hid. destruct Hid as (pr0 & Hfst & Hin0). apply filter_In in Hin0. destruct Hin0 as [Hd0 Hc0].
    unfold M. apply in_map_iff. exists pr0. split; [exact Hfst|]. apply filter_In. split; [exact Hd0|].
    rewrite (cls_on_worker R F assigned a0 a1 q0 q1 s d Y HMY pr0 Hd0 Hc0). change (1 =? 1) with true. cbn [andb].
    unfold cls, ExactFullQueue.cls in Hc0. fold I in Hc0. unfold clsp.
    destruct (find_task (ready_tasks I) (fst pr0)) as [t0|] eqn:E; [|discriminate]. rewrite Hc0. cbn [andb].
    apply N.eqb_eq in Hc0.
    pose proof (running_first R F assigned a0 a1 q0 q1 s d Y HMY pr0 t0 (qz_nodup q0 q1 Hnd0 Hnd1 Y) Hd0 E Hc0) as Hin2.
    apply find_task_in in E. destruct E as [_ Hid0]. rewrite Hid0, Hfst in Hin2.
    assert (Hpe : t_prio t0 = p').
    { apply (nodup_snd_inj (flat_tasks (qz Y)) (t_prio t0) p' id (qz_nodup q0 q1 Hnd0 Hnd1 Y)); [|assumption].
      rewrite <- (firstn_skipn (N.to_nat xY)). apply in_or_app. left. exact Hin2. }
    rewrite Hpe. apply N.leb_le. exact Hp'. }
  pose proof (NoDup_incl_length Hnd Hincl) as Hlen. unfold L, M in Hlen. rewrite !map_length in Hlen. lia.
Qed.

Hypothesis Hfits : fits_without_lower I d W u = true.

Lemma fits_numbers : az X * (xX + 1) + az Y * sum_ge p (levels (qz Y)) <= F.
Proof.
  destruct (fits_unfold d u Hfits) as (v & Hsub & Hcap). fold p in Hsub.
  destruct (sub_all_y _ _ _ Hsub (keep_classes p d)) as [-> Hle].
  rewrite !keep_count in Hle, Hcap.
  pose proof keepX_count as HkX. pose proof keepY_count as HkY.
  rewrite HuX in Hcap. unfold az, ExactFullQueue.az.
  destruct HXY as [[-> ->]|[-> ->]].
  - change (req_of I 0) with [(0, a0)] in Hcap. cbn [capable_res forallb fst snd] in Hcap.
    change (rv_get [?z] 0) with z in Hcap. rewrite HkX in Hle, Hcap. change (0 =? 0) with true. change (1 =? 0) with false.
    apply andb_true_iff in Hcap. destruct Hcap as [Hcap _]. apply N.leb_le in Hcap. nia.
  - change (req_of I 1) with [(0, a1)] in Hcap. cbn [capable_res forallb fst snd] in Hcap.
    change (rv_get [?z] 0) with z in Hcap. rewrite HkX in Hle, Hcap. change (0 =? 0) with true. change (1 =? 0) with false.
    apply andb_true_iff in Hcap. destruct Hcap as [Hcap _]. apply N.leb_le in Hcap. nia.
Qed.

End Two.
End YK.
