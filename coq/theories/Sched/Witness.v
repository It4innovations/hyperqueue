(** Concrete witnesses of the known priority-inversion classes K1..K5 (C15).  Each instance is the
    minimised trace corpus/sched/<k>.trace: the solution and the dispatch are what the REAL scheduler
    (HiGHS) produced for it; feasibility, optimality (sweep of the bounded box, lifted by
    [optimal_by_enumeration]), the validity of the dispatch, the inversion and its class are checked here.
    GENERATED once by tools/gen_sched_witness.py from the corpus traces; kept under version control. *)
From HQ Require Import Base.Prelude Gen.Consts Sched.Model Sched.Optimal.
Open Scope N_scope.

(** an optimal solution of the exact row system + the dispatch the real code derived from it exhibit an
    inversion of class [v] *)
Definition refutes (I : inst) (s : sol) (d : dispatch) (v : verdict) : Prop :=
  exists bs m,
    create_task_batches I = Ok bs /\ milp_of I bs = Ok m
    /\ feasible m s = true
    /\ (forall s', feasible m s' = true -> (objective m s' <= objective m s)%Z)
    /\ mapping_ok I bs s d = true
    /\ inversion I d = true
    /\ exists x, In x (inversions I d) /\ classify I bs s d x = v.

Definition mk_queues (n : nat) (tasks : list (N * N * Z)) : list queue :=
  map (fun rq => fold_left (fun q t => if snd (fst t) =? rq then queue_add q (fst (fst t)) (from_user_priority (snd t)) else q)
                           tasks empty_queue) (seqN 0 n).

Definition refuted_class (I : inst) (s : sol) (d : dispatch) (ubs : list (var * Z)) : option verdict :=
  match create_task_batches I with
  | Ok bs =>
      match milp_of I bs, inversions I d with
      | Ok m, x :: _ =>
          if feasible m s && closed m && ub_certified m ubs && best_in_box m ubs (objective m s)
             && mapping_ok I bs s d
          then Some (classify I bs s d x) else None
      | _, _ => None
      end
  | _ => None
  end.

Lemma refuted_class_sound : forall I s d ubs v, refuted_class I s d ubs = Some v -> refutes I s d v.
Proof.
  intros I s d ubs v H. unfold refuted_class in H.
  destruct (create_task_batches I) as [bs| |] eqn:Hbs; try discriminate.
  destruct (milp_of I bs) as [m| |] eqn:Hm; try discriminate.
  destruct (inversions I d) as [|x l] eqn:Hx; try discriminate.
  destruct (feasible m s && closed m && ub_certified m ubs && best_in_box m ubs (objective m s)
            && mapping_ok I bs s d) eqn:Hb; [|discriminate].
  repeat (apply andb_true_iff in Hb; destruct Hb as [Hb ?]). injection H as <-.
  exists bs, m. repeat split; try assumption.
  - apply (optimal_by_enumeration m ubs); assumption.
  - unfold inversion. rewrite Hx. reflexivity.
  - exists x. rewrite Hx. split; [left|]; reflexivity.
Qed.

Definition k1_inst : inst :=
  {| i_nres := 1; i_now := 0;
     i_workers :=
    [{| w_id := 1; w_res := [70000]; w_free := [70000]; w_assigned := []; w_blocked := []; w_term := None |};
     {| w_id := 2; w_res := [80000]; w_free := [80000]; w_assigned := []; w_blocked := []; w_term := None |}];
     i_classes :=
    [{| rc_entries := [(0, 30000)]; rc_min_time := 0; rc_all := [] |};
     {| rc_entries := [(0, 15000)]; rc_min_time := 0; rc_all := [] |}];
     i_queues := mk_queues 2 [(8589934593, 0, (50)%Z); (4294967298, 0, (-1)%Z); (8589934595, 0, (50)%Z); (4294967300, 0, (50)%Z); (4294967301, 0, (-30)%Z); (8589934598, 1, (4)%Z); (8589934599, 1, (57)%Z); (8589934600, 1, (4)%Z); (4294967305, 1, (-30)%Z); (4294967306, 1, (57)%Z)] |}.
Definition k1_sol : sol := sol_of [(VX 1 0, 1%Z); (VX 1 1, 2%Z); (VX 2 0, 1%Z); (VX 2 1, 3%Z); (VB 1 2, 0%Z); (VB 1 4, 0%Z); (VB 0 3, 1%Z); (VB 0 4, 1%Z)].
Definition k1_dispatch : dispatch := [(4294967306, 1); (4294967300, 1); (8589934598, 1); (8589934599, 2); (8589934593, 2); (8589934600, 2); (4294967305, 2)].
Definition k1_ubs : list (var * Z) := [(VX 1 0, 2%Z); (VX 1 1, 4%Z); (VX 2 0, 2%Z); (VX 2 1, 5%Z); (VB 1 2, 1%Z); (VB 1 4, 1%Z); (VB 0 3, 1%Z); (VB 0 4, 1%Z)].
Lemma k1_refutes : refutes k1_inst k1_sol k1_dispatch VK1.
Proof.
  apply (refuted_class_sound _ _ _ k1_ubs). vm_compute. reflexivity.
Qed.

Definition k2_inst : inst :=
  {| i_nres := 1; i_now := 0;
     i_workers :=
    [{| w_id := 1; w_res := [50000]; w_free := [50000]; w_assigned := []; w_blocked := []; w_term := None |}];
     i_classes :=
    [{| rc_entries := [(0, 30000)]; rc_min_time := 0; rc_all := [] |};
     {| rc_entries := [(0, 20000)]; rc_min_time := 0; rc_all := [] |};
     {| rc_entries := [(0, 15000)]; rc_min_time := 0; rc_all := [] |}];
     i_queues := mk_queues 3 [(8589934593, 0, (89)%Z); (4294967298, 0, (30)%Z); (8589934595, 0, (-91)%Z); (8589934596, 1, (14)%Z); (8589934597, 1, (30)%Z); (4294967302, 2, (98)%Z); (4294967303, 2, (10)%Z); (4294967304, 2, (30)%Z)] |}.
Definition k2_sol : sol := sol_of [(VX 1 0, 0%Z); (VX 1 1, 1%Z); (VX 1 2, 2%Z); (VB 2 1, 0%Z); (VB 0 1, 1%Z); (VB 2 2, 1%Z); (VB 1 2, 1%Z)].
Definition k2_dispatch : dispatch := [(4294967302, 1); (4294967304, 1); (8589934597, 1)].
Definition k2_ubs : list (var * Z) := [(VX 1 0, 1%Z); (VX 1 1, 2%Z); (VX 1 2, 3%Z); (VB 2 1, 1%Z); (VB 0 1, 1%Z); (VB 2 2, 1%Z); (VB 1 2, 1%Z)].
Lemma k2_refutes : refutes k2_inst k2_sol k2_dispatch VK2.
Proof.
  apply (refuted_class_sound _ _ _ k2_ubs). vm_compute. reflexivity.
Qed.

Definition k3_inst : inst :=
  {| i_nres := 1; i_now := 0;
     i_workers :=
    [{| w_id := 1; w_res := [30000]; w_free := [30000]; w_assigned := []; w_blocked := []; w_term := None |};
     {| w_id := 2; w_res := [30000]; w_free := [30000]; w_assigned := []; w_blocked := []; w_term := None |}];
     i_classes :=
    [{| rc_entries := [(0, 20000)]; rc_min_time := 0; rc_all := [] |};
     {| rc_entries := [(0, 10000)]; rc_min_time := 0; rc_all := [] |}];
     i_queues := mk_queues 2 [(8589934593, 0, (29)%Z); (8589934594, 0, (24)%Z); (4294967299, 0, (29)%Z); (4294967300, 0, (29)%Z); (4294967301, 0, (29)%Z); (4294967302, 0, (24)%Z); (8589934599, 1, (29)%Z); (4294967304, 1, (24)%Z); (8589934601, 1, (24)%Z); (4294967306, 1, (24)%Z); (4294967307, 1, (29)%Z)] |}.
Definition k3_sol : sol := sol_of [(VX 1 0, 1%Z); (VX 1 1, 1%Z); (VX 2 0, 0%Z); (VX 2 1, 3%Z)].
Definition k3_dispatch : dispatch := [(4294967299, 1); (4294967307, 1); (8589934599, 2); (4294967304, 2); (4294967306, 2)].
Definition k3_ubs : list (var * Z) := [(VX 1 0, 1%Z); (VX 1 1, 3%Z); (VX 2 0, 1%Z); (VX 2 1, 3%Z)].
Lemma k3_refutes : refutes k3_inst k3_sol k3_dispatch VK3.
Proof.
  apply (refuted_class_sound _ _ _ k3_ubs). vm_compute. reflexivity.
Qed.

Definition k4_inst : inst :=
  {| i_nres := 2; i_now := 0;
     i_workers :=
    [{| w_id := 10; w_res := [70000; 40000]; w_free := [70000; 40000]; w_assigned := []; w_blocked := []; w_term := None |}];
     i_classes :=
    [{| rc_entries := [(0, 20000)]; rc_min_time := 0; rc_all := [] |};
     {| rc_entries := [(0, 10000); (1, 20000)]; rc_min_time := 0; rc_all := [] |}];
     i_queues := mk_queues 2 [(4294967297, 0, (-1)%Z); (4294967298, 0, (-29)%Z); (8589934595, 0, (2147483647)%Z); (4294967300, 0, (-74)%Z); (4294967301, 0, (-74)%Z); (8589934598, 0, (16)%Z); (8589934599, 1, (-74)%Z); (4294967304, 1, (-29)%Z); (8589934601, 1, (2147483647)%Z); (4294967306, 1, (-2147483648)%Z); (4294967307, 1, (-74)%Z)] |}.
Definition k4_sol : sol := sol_of [(VX 10 0, 2%Z); (VX 10 1, 2%Z); (VB 1 1, 1%Z); (VB 0 3, 1%Z)].
Definition k4_dispatch : dispatch := [(8589934595, 10); (8589934601, 10); (8589934598, 10); (4294967304, 10)].
Definition k4_ubs : list (var * Z) := [(VX 10 0, 3%Z); (VX 10 1, 2%Z); (VB 1 1, 1%Z); (VB 0 3, 1%Z)].
Lemma k4_refutes : refutes k4_inst k4_sol k4_dispatch VK4.
Proof.
  apply (refuted_class_sound _ _ _ k4_ubs). vm_compute. reflexivity.
Qed.

Definition k5_inst : inst :=
  {| i_nres := 3; i_now := 0;
     i_workers :=
    [{| w_id := 1; w_res := [70000; 0; 40000]; w_free := [50000; 0; 40000]; w_assigned := [1; 1]; w_blocked := []; w_term := None |}];
     i_classes :=
    [{| rc_entries := [(0, 30000); (2, 40000)]; rc_min_time := 0; rc_all := [] |};
     {| rc_entries := [(0, 10000)]; rc_min_time := 0; rc_all := [] |};
     {| rc_entries := [(0, 10000); (2, 10000)]; rc_min_time := 0; rc_all := [] |}];
     i_queues := mk_queues 3 [(8589934593, 0, (26)%Z); (4294967298, 1, (-74)%Z); (8589934595, 2, (-64)%Z); (8589934596, 2, (-74)%Z); (8589934597, 2, (-64)%Z); (8589934598, 2, (-64)%Z); (8589934599, 2, (100)%Z); (4294967304, 2, (-64)%Z); (4294967305, 2, (-64)%Z)] |}.
Definition k5_sol : sol := sol_of [(VX 1 0, 0%Z); (VX 1 1, 1%Z); (VX 1 2, 1%Z); (VB 2 1, 1%Z); (VB 0 1, 1%Z)].
Definition k5_dispatch : dispatch := [(8589934599, 1); (4294967298, 1)].
Definition k5_ubs : list (var * Z) := [(VX 1 0, 1%Z); (VX 1 1, 5%Z); (VX 1 2, 4%Z); (VB 2 1, 1%Z); (VB 0 1, 1%Z)].
Lemma k5_refutes : refutes k5_inst k5_sol k5_dispatch VK5.
Proof.
  apply (refuted_class_sound _ _ _ k5_ubs). vm_compute. reflexivity.
Qed.
