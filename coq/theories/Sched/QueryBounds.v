(** C17, demand side: the scheduler never asks for more workers than there are waiting tasks.

    For every state, every list of queries and every solver answer that is a feasible point of the rows the
    model derives ([query_sol_ok]):
    - [query_total_le_batches]   the sum of the per-query counts is at most the number of waiting tasks of the
                                 batches' classes, summed over the batches;
    - [query_count_le_fitting]   the count of query i is at most the number of waiting tasks of the classes that
                                 have a placement variable on the fake workers of query i.
    Proof: a loaded fake worker holds a task of some batch; per batch the loaded workers are bounded by the
    size row (sum of the placement variables <= batch size <= waiting tasks of the class) or, if the batch
    hit its limit (no size row), by the number of capable workers <= limit <= waiting tasks. *)
From HQ Require Import Base.Prelude Gen.Consts Sched.Model Sched.ProofsRows Sched.ProofsCuts Sched.Query Sched.QueryProofs.
Require Import ZifyBool ZifyN ZifyNat.
Open Scope N_scope.

Definition holds (I : inst) (s : sol) (b : batch) (w : worker) : bool :=
  placeable I w (b_rq b) && (0 <? sol_x s (w_id w) (b_rq b)).

Lemma nlen_cons : forall {A} (x : A) l, nlen (x :: l) = 1 + nlen l.
Proof. intros. unfold nlen. simpl length. lia. Qed.

Lemma filter_orb_le : forall {A} (f g : A -> bool) l,
  nlen (filter (fun x => f x || g x) l) <= nlen (filter f l) + nlen (filter g l).
Proof.
  intros A f g l. induction l as [|x t IH]; [unfold nlen; simpl; lia|].
  cbn [filter]. destruct (f x), (g x); cbn [orb]; rewrite ?nlen_cons; lia.
Qed.

Lemma loaded_le_sum : forall I s G (B : batch -> N) bs,
  (forall b, In b bs -> nlen (filter (holds I s b) G) <= B b) ->
  nlen (filter (loaded I bs s) G) <= sumN (map B bs).
Proof.
  intros I s G B. induction bs as [|b t IH]; intros H.
  - unfold loaded. cbn [existsb map sumN fold_right].
    assert (E : filter (fun _ : worker => false) G = []) by (clear; induction G as [|x t IHG]; simpl; [reflexivity|exact IHG]).
    rewrite E. unfold nlen. simpl. lia.
  - cbn [map sumN fold_right]. fold (sumN (map B t)).
    assert (E : forall w, loaded I (b :: t) s w = holds I s b w || loaded I t s w) by reflexivity.
    rewrite (filter_ext _ _ E).
    etransitivity; [apply filter_orb_le|].
    specialize (H b (or_introl eq_refl)) as Hb. specialize (IH (fun b' Hb' => H b' (or_intror Hb'))). lia.
Qed.

Definition sumv (s : sol) (l : list var) : Z := fold_right (fun v acc => (s v + acc)%Z) 0%Z l.

Lemma sumv_app : forall s a b, sumv s (a ++ b) = (sumv s a + sumv s b)%Z.
Proof. intros s a b. induction a as [|v a IH]; simpl; [reflexivity|]. rewrite IH. lia. Qed.

Lemma sumv_nonneg : forall s l, (forall v, In v l -> (0 <= s v)%Z) -> (0 <= sumv s l)%Z.
Proof.
  intros s l. induction l as [|v t IH]; intros H; simpl; [lia|].
  specialize (H v (or_introl eq_refl)) as Hv. specialize (IH (fun v' Hv' => H v' (or_intror Hv'))). lia.
Qed.

Lemma sumv_ge_in : forall s l v, (forall v, In v l -> (0 <= s v)%Z) -> In v l -> (s v <= sumv s l)%Z.
Proof.
  intros s l. induction l as [|x t IH]; intros v H Hin; [contradiction|]. simpl.
  pose proof (sumv_nonneg s t (fun v' Hv' => H v' (or_intror Hv'))) as Ht.
  destruct Hin as [->|Hin]; [lia|].
  specialize (IH v (fun v' Hv' => H v' (or_intror Hv')) Hin). specialize (H x (or_introl eq_refl)). lia.
Qed.

Definition cv_w (I : inst) (bs : list batch) (rq : N) (w : worker) : list var :=
  concat (map (fun b =>
    if b_rq b =? rq then
      match placement_kind I w b with
      | PX => [VX (w_id w) rq]
      | PR => [VR (w_id w) rq]
      | PNone => []
      end
    else []) bs).

Lemma count_vars_eq : forall I bs rq, count_vars I bs rq = concat (map (cv_w I bs rq) (i_workers I)).
Proof. reflexivity. Qed.

Lemma query_rows_entry : forall I bs m s, query_rows I bs = Ok m -> feasible m s = true ->
  exists mf, milp_of I bs = Ok mf /\ forall e, In e mf -> is_max_row I e = false -> entry_ok s e = true.
Proof.
  intros I bs m s Hm Hf. unfold query_rows in Hm.
  destruct (milp_of I bs) as [mf| |]; simpl in Hm; try discriminate. injection Hm as <-.
  exists mf. split; [reflexivity|]. intros e He Hx. apply (feasible_in _ _ _ Hf), filter_In. rewrite Hx. auto.
Qed.

Lemma query_var_nonneg : forall I bs m s w b v,
  query_rows I bs = Ok m -> feasible m s = true ->
  In w (i_workers I) -> In v (cv_w I bs (b_rq b) w) -> (0 <= s v)%Z.
Proof.
  intros I bs m s w b v Hm Hf Hw Hv. destruct (query_rows_entry _ _ _ _ Hm Hf) as (mf & Emf & Hok).
  destruct (worker_entries_in I bs mf w Emf Hw) as (i & Hi).
  unfold cv_w in Hv. apply in_concat in Hv. destruct Hv as (l & Hl & Hv).
  apply in_map_iff in Hl. destruct Hl as (b' & <- & Hb').
  destruct (b_rq b' =? b_rq b) eqn:Erq; [|contradiction]. apply N.eqb_eq in Erq.
  destruct (placement_kind I w b') eqn:Ek; [| |contradiction]; destruct Hv as [<-|[]].
  - pose proof (Hok _ (Hi _ (var_x_in I bs i w b' Hb' Ek)) eq_refl) as H. simpl in H. rewrite <- Erq. lia.
  - pose proof (Hok _ (Hi _ (var_r_in I bs i w b' Hb' Ek)) eq_refl) as H. simpl in H. rewrite <- Erq. lia.
Qed.

Lemma holders_le_sumv : forall I bs m s b,
  query_rows I bs = Ok m -> feasible m s = true -> In b bs ->
  forall G, (forall w, In w G -> In w (i_workers I)) ->
  (Z.of_N (nlen (filter (holds I s b) G)) <= sumv s (concat (map (cv_w I bs (b_rq b)) G)))%Z.
Proof.
  intros I bs m s b Hm Hf Hb. induction G as [|w t IH]; intros HG; [unfold nlen; simpl; lia|].
  cbn [map concat filter]. rewrite sumv_app.
  specialize (IH (fun w' Hw' => HG w' (or_intror Hw'))).
  assert (Hw : In w (i_workers I)) by (apply HG; left; reflexivity).
  assert (Hnn : forall v, In v (cv_w I bs (b_rq b) w) -> (0 <= s v)%Z)
    by (intros v Hv; eapply query_var_nonneg; eauto).
  pose proof (sumv_nonneg s _ Hnn) as H0.
  destruct (holds I s b w) eqn:Eh; [|lia].
  rewrite nlen_cons. unfold holds in Eh. apply andb_true_iff in Eh. destruct Eh as [Hp Hx].
  assert (Hin : In (VX (w_id w) (b_rq b)) (cv_w I bs (b_rq b) w)).
  { unfold cv_w. apply in_concat. eexists. split; [apply in_map_iff; exists b; split; [reflexivity|assumption]|].
    rewrite N.eqb_refl. apply placement_px in Hp. rewrite Hp. left. reflexivity. }
  pose proof (sumv_ge_in s _ _ Hnn Hin) as Hge. unfold sol_x in Hx. lia.
Qed.

Lemma size_row_bound : forall I bs m s b,
  query_rows I bs = Ok m -> feasible m s = true -> In b bs -> b_lr b = false ->
  (sumv s (count_vars I bs (b_rq b)) <= Z.of_N (b_size b))%Z.
Proof.
  intros I bs m s b Hm Hf Hb Hlr.
  destruct (count_vars I bs (b_rq b)) as [|v0 vs] eqn:Ecv; [simpl; lia|]. rewrite <- Ecv.
  destruct (query_rows_entry _ _ _ _ Hm Hf) as (mf & Emf & Hok).
  destruct (milp_items I bs mf Emf) as (its & Hits & Hemit).
  unfold all_items in Hits. destruct (collect_res (map (batch_items I bs) bs)) as [l| |] eqn:E; simpl in Hits; try discriminate.
  inversion Hits; subst. destruct (collect_res_in _ _ _ b E Hb) as (bi & Hbi & Hin).
  unfold batch_items in Hbi. rewrite Ecv in Hbi.
  destruct (cuts_items I bs b (b_cuts b) []) as [ci| |] eqn:E3; simpl in Hbi; try discriminate. inversion Hbi; subst.
  rewrite Hlr in Hin.
  assert (Hit : In (ISize (b_rq b) (b_size b)) (concat l)).
  { apply in_concat. eexists. split; [exact Hin|]. left. reflexivity. }
  pose proof (Hok _ (Hemit _ (emit_row_in I bs _ [] _ Hit)) eq_refl) as Hrow.
  simpl in Hrow. unfold row_ok, row_lhs in Hrow. simpl in Hrow.
  fold (lhs s (ones (count_vars I bs (b_rq b)))) in Hrow. rewrite lhs_ones in Hrow.
  fold (sumv s (count_vars I bs (b_rq b))) in Hrow. unfold z in Hrow. lia.
Qed.

(** a batch that hit its limit: the limit counts at least one task per capable worker *)
Lemma capable_le_limit : forall I rq,
  nlen (filter (fun w => capable I w rq) (i_workers I)) <= batch_limit I rq.
Proof.
  intros I rq. unfold batch_limit. induction (i_workers I) as [|w t IH]; [unfold nlen; simpl; lia|].
  cbn [filter fold_right]. destruct (capable I w rq); [rewrite nlen_cons|]; cbv zeta in *.
  - destruct (0 <? task_max_count_cls (w_free w) (class_of I rq)) eqn:E; lia.
  - lia.
Qed.

Lemma filter_impl_le : forall {A} (f g : A -> bool) l,
  (forall x, In x l -> f x = true -> g x = true) -> nlen (filter f l) <= nlen (filter g l).
Proof.
  intros A f g l. induction l as [|x t IH]; intros H; [unfold nlen; simpl; lia|].
  cbn [filter]. specialize (IH (fun y Hy => H y (or_intror Hy))). specialize (H x (or_introl eq_refl)).
  destruct (f x), (g x); rewrite ?nlen_cons; try lia; specialize (H eq_refl); discriminate.
Qed.

Lemma holders_le_waiting : forall I bs m s b,
  create_task_batches I = Ok bs -> query_rows I bs = Ok m -> feasible m s = true ->
  (forall w, In w (i_workers I) -> w_free w = w_res w) ->
  In b bs ->
  nlen (filter (holds I s b) (i_workers I)) <= waiting_of I (b_rq b).
Proof.
  intros I bs m s b Hbs Hm Hf Hfree Hb.
  pose proof (batches_inv _ _ Hbs) as Hinv. rewrite Forall_forall in Hinv.
  destruct (Hinv b Hb) as (_ & Hlim & Hsz & Hlr).
  destruct (b_lr b) eqn:Elr.
  - specialize (Hlr eq_refl).
    etransitivity; [apply (filter_impl_le _ (fun w => capable I w (b_rq b)))|].
    + intros w Hw Hh. unfold holds in Hh. apply andb_true_iff in Hh. destruct Hh as [Hp _].
      unfold placeable in Hp. unfold capable. rewrite <- (Hfree w Hw).
      apply andb_true_iff in Hp. destruct Hp as [Hp1 Hp2]. apply andb_true_iff in Hp1. destruct Hp1 as [_ Hp1].
      rewrite Hp1, Hp2. reflexivity.
    + etransitivity; [apply capable_le_limit|]. lia.
  - pose proof (holders_le_sumv I bs m s b Hm Hf Hb (i_workers I) (fun w Hw => Hw)) as H1.
    rewrite <- count_vars_eq in H1.
    pose proof (size_row_bound I bs m s b Hm Hf Hb Elr) as H2. lia.
Qed.

Lemma nlen_filter_concat : forall {A} (f : A -> bool) gs,
  nlen (filter f (concat gs)) = sumN (map (fun g => nlen (filter f g)) gs).
Proof.
  intros A f. induction gs as [|g t IH]; [reflexivity|].
  cbn [concat map sumN fold_right]. fold (sumN (map (fun g0 => nlen (filter f g0)) t)).
  rewrite <- IH. unfold nlen. rewrite filter_app, app_length. lia.
Qed.

Lemma query_sol_ok_feasible : forall st qs s bs m,
  query_sol_ok st qs s = true -> create_task_batches (query_inst st qs) = Ok bs ->
  query_rows (query_inst st qs) bs = Ok m -> feasible m s = true.
Proof. intros st qs s bs m H Hb Hm. unfold query_sol_ok in H. cbv zeta in H. rewrite Hb, Hm in H. exact H. Qed.

Lemma query_workers_free : forall st qs w, In w (i_workers (query_inst st qs)) -> w_free w = w_res w.
Proof. intros st qs w H. exact (fake_groups_free _ _ _ _ _ H). Qed.

Definition batches_waiting (I : inst) (bs : list batch) : N := sumN (map (fun b => waiting_of I (b_rq b)) bs).

Theorem query_total_le_batches : forall st qs s r,
  compute_new_worker_query st qs s = Ok r -> query_sol_ok st qs s = true ->
  exists bs, create_task_batches (query_inst st qs) = Ok bs
    /\ sumN (r_sn r) <= batches_waiting (query_inst st qs) bs.
Proof.
  intros st qs s r H Hok. destruct (cnwq_ok _ _ _ _ H) as (bs & m & Hb & Hm & ->).
  pose proof (query_sol_ok_feasible _ _ _ _ _ Hok Hb Hm) as Hf.
  exists bs. split; [assumption|]. simpl. unfold sn_counts.
  rewrite <- nlen_filter_concat.
  change (concat (query_groups st qs)) with (i_workers (query_inst st qs)).
  apply loaded_le_sum. intros b Hbin.
  eapply holders_le_waiting; eauto. apply query_workers_free.
Qed.

Lemma group_le_concat : forall {A} (f : A -> bool) gs g,
  In g gs -> nlen (filter f g) <= nlen (filter f (concat gs)).
Proof.
  intros A f. induction gs as [|g0 t IH]; intros g H; [contradiction|].
  cbn [concat]. rewrite filter_app. unfold nlen in *. rewrite app_length.
  destruct H as [->|H]; [lia|]. specialize (IH g H). lia.
Qed.

Theorem query_count_le_fitting : forall st qs s r i q c,
  compute_new_worker_query st qs s = Ok r -> query_sol_ok st qs s = true ->
  nth_error qs i = Some q -> nth_error (r_sn r) i = Some c ->
  exists bs, create_task_batches (query_inst st qs) = Ok bs
    /\ c <= sumN (map (fun b => if class_fits (query_inst st qs) q (b_rq b)
                               then waiting_of (query_inst st qs) (b_rq b) else 0) bs).
Proof.
  intros st qs s r i q c H Hok Hq Hc.
  destruct (count_nth _ _ _ _ _ _ H Hq) as (bs & m & base & Hb & Hm & Hg & Hn).
  pose proof (query_sol_ok_feasible _ _ _ _ _ Hok Hb Hm) as Hf.
  exists bs. split; [assumption|]. rewrite Hn in Hc. inversion Hc; subst c. clear Hc.
  apply loaded_le_sum. intros b Hbin.
  destruct (class_fits (query_inst st qs) q (b_rq b)) eqn:Efit.
  - etransitivity; [apply (group_le_concat _ (query_groups st qs)); eapply nth_error_In; exact Hg|].
    change (concat (query_groups st qs)) with (i_workers (query_inst st qs)).
    eapply holders_le_waiting; eauto. apply query_workers_free.
  - rewrite filter_map_none; [unfold nlen; simpl; lia|]. intros id.
    unfold holds.
    change (placeable (query_inst st qs) (fake_worker (nres_after (qs_nres st) qs) (qs_now st) q id) (b_rq b))
      with (class_fits (query_inst st qs) q (b_rq b)).
    rewrite Efit. reflexivity.
Qed.
