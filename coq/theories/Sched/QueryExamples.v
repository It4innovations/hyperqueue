(** Concrete instance next to the theorems of [QueryProofs] / [QueryBounds]: their hypotheses are satisfiable
    and the conclusions are not vacuous.  One resource (cpus), worker counter 5; classes: 0 = 2 cpus, 1 = 8 cpus
    (min_time 50), 2 = multi-node, 2 nodes, min_time 50; waiting: two / one / three tasks.
    Queries: 0 = full descriptor, 4 cpus, time limit 100, up to 2 workers, 1 worker per allocation;
             1 = partial descriptor naming nothing, time limit 60, up to 1 worker, 2 workers per allocation;
             2 = full descriptor, 1 cpu, time limit 10: no class fits. *)
From HQ Require Import Base.Prelude Gen.Consts Sched.Model Sched.Query Sched.QueryProofs Sched.QueryBounds.
Open Scope N_scope.

Definition ex_queues (n : nat) (tasks : list (N * N * Z)) : list queue :=
  map (fun rq => fold_left (fun q t => if snd (fst t) =? rq then queue_add q (fst (fst t)) (from_user_priority (snd t)) else q)
                           tasks empty_queue) (seqN 0 n).

Definition ex_st : qstate :=
  {| qs_nres := 1; qs_now := 0;
     qs_classes := [ {| rc_entries := [(0, 20000)]; rc_min_time := 0; rc_all := [] |};
                     {| rc_entries := [(0, 80000)]; rc_min_time := 50; rc_all := [] |};
                     {| rc_entries := []; rc_min_time := 50; rc_all := [] |} ];
     qs_nodes := [0; 0; 2];
     qs_queues := ex_queues 3 [(1, 0, 0%Z); (2, 0, 0%Z); (3, 1, 0%Z); (4, 2, 0%Z); (5, 2, 0%Z); (6, 2, 0%Z)];
     qs_worker_counter := 5; qs_free_real := 0 |}.

Definition ex_q0 := {| wq_partial := false; wq_desc := [(0, 40000)]; wq_time_limit := Some 100; wq_max_sn := 2; wq_max_per_alloc := 1 |}.
Definition ex_q1 := {| wq_partial := true; wq_desc := []; wq_time_limit := Some 60; wq_max_sn := 1; wq_max_per_alloc := 2 |}.
Definition ex_q2 := {| wq_partial := false; wq_desc := [(0, 10000)]; wq_time_limit := Some 10; wq_max_sn := 3; wq_max_per_alloc := 0 |}.
Definition ex_qs := [ex_q0; ex_q1; ex_q2].

(** the solver's answer: both 2-cpu tasks on fake worker 6 (query 0), the 8-cpu task on fake worker 8 (query 1) *)
Definition ex_sol : sol := fun v =>
  match v with
  | VX 6 0 => 2%Z
  | VX 8 1 => 1%Z
  | _ => 0%Z
  end.

Example ex_valid : forallb desc_valid ex_qs = true.
Proof. vm_compute. reflexivity. Qed.

Example ex_sol_ok : query_sol_ok ex_st ex_qs ex_sol = true.
Proof. vm_compute. reflexivity. Qed.

Example ex_response :
  compute_new_worker_query ex_st ex_qs ex_sol
  = Ok {| r_sn := [1; 1; 0]; r_mn := [{| mn_type := 1; mn_per_alloc := 2; mn_max_allocs := 3 |}] |}.
Proof. vm_compute. reflexivity. Qed.

(** hypothesis of [query_no_candidates_no_demand] for query 2, on the finitely many classes *)
Example ex_no_candidates :
  forallb (fun rq => negb (0 <? waiting_of (query_inst ex_st ex_qs) rq) || negb (class_fits (query_inst ex_st ex_qs) ex_q2 rq)) [0; 1; 2] = true
  /\ nth_error ex_qs 2 = Some ex_q2.
Proof. split; vm_compute; reflexivity. Qed.

Example ex_fits :
  map (fun q => map (class_fits (query_inst ex_st ex_qs) q) [0; 1]) ex_qs = [[true; false]; [true; true]; [false; false]].
Proof. vm_compute. reflexivity. Qed.

(** number of waiting single-node tasks: three; the total demand is two *)
Example ex_waiting : sn_waiting ex_st = 3.
Proof. vm_compute. reflexivity. Qed.

(** the wrapper: scheduling flag set and the rounds did not finish -> the empty answer *)
Example ex_wrapper_empty :
  new_worker_query ex_st ex_qs true false ex_sol = Ok (QResp {| r_sn := []; r_mn := [] |}).
Proof. vm_compute. reflexivity. Qed.

(** an invalid descriptor (a full descriptor without cpus) -> error *)
Example ex_wrapper_invalid :
  new_worker_query ex_st [{| wq_partial := false; wq_desc := [(1, 10000)]; wq_time_limit := None; wq_max_sn := 1; wq_max_per_alloc := 1 |}]
    false true ex_sol = Ok QErr.
Proof. vm_compute. reflexivity. Qed.

(** documentation of the repaired defects: on these two states the code BEFORE the repairs panicked
    (corpus/sched/fixed_F32_*.trace, fixed_F33_*.trace) *)
Definition f32_st : qstate :=
  {| qs_nres := 1; qs_now := 0; qs_classes := [ {| rc_entries := []; rc_min_time := 0; rc_all := [] |} ];
     qs_nodes := [2]; qs_queues := ex_queues 1 [(1, 0, 0%Z)]; qs_worker_counter := 2; qs_free_real := 2 |}.
Example F32_prefix_unwrap_on_fake_worker_group :
  prefix_mn_unwrap f32_st [{| wq_partial := false; wq_desc := [(0, 10000)]; wq_time_limit := None; wq_max_sn := 1; wq_max_per_alloc := 2 |}] = true.
Proof. vm_compute. reflexivity. Qed.

Definition f33_st : qstate :=
  {| qs_nres := 1; qs_now := 0; qs_classes := [ {| rc_entries := []; rc_min_time := 0; rc_all := [0] |} ];
     qs_nodes := [0]; qs_queues := ex_queues 1 [(1, 0, 0%Z)]; qs_worker_counter := 0; qs_free_real := 0 |}.
Example F33_prefix_max_coefficient_leaks :
  prefix_highs_rejects f33_st
    [{| wq_partial := true; wq_desc := []; wq_time_limit := None; wq_max_sn := 1; wq_max_per_alloc := 0 |};
     {| wq_partial := false; wq_desc := [(0, 40000)]; wq_time_limit := None; wq_max_sn := 1; wq_max_per_alloc := 0 |}] = true.
Proof. vm_compute. reflexivity. Qed.
