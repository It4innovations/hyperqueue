(** C09 - Server and workers survive every message order and fault (no reachable panic). *)
From HQ Require Import Base.Prelude Cluster.Types Cluster.Core Cluster.Reactor Cluster.Worker Cluster.Server Cluster.Sys Cluster.Monitors Cluster.ProofsJob Cluster.ProofsCore Cluster.ProofsMore Cluster.RejHyp Cluster.BijFinal Cluster.InvProcsDef Cluster.InvBundle Cluster.NoPanicC5 Cluster.NoPanicC6 Cluster.NoPanicL0 Cluster.NoPanicL4 Cluster.NoPanicS7 Cluster.NoPanicS8 Cluster.NoPanicAll Cluster.RetractFree Cluster.BijCore Cluster.BijReact Cluster.NoPanicU0 Cluster.NoPanicU1 Cluster.NoPanicU20 Cluster.NoPanicU26 Cluster.NoPanicU29 Cluster.NoFresh Cluster.NoPanicFull Cluster.NoWf.
From Coq Require Import ZArith.
Local Open Scope N_scope.

(** NO REACHABLE PANIC.  For every history of operations of the system model - client requests,
    worker connections and losses, deliveries of messages in both directions in any order, scheduler
    rounds, task ends, launch failures, timers - that satisfies the executable well-formedness
    [run_hyp] (NoPanicFull.v: multi-node classes carry no resource amounts; every scheduler answer
    satisfies the solver contract [sol_ok], uses variant 0, places classes in their own mode and puts
    no multi-node task on a worker a task is being retracted from; explicit ids of an array submit
    are distinct) and [op_wf], the run is never a [Panic].  Nothing is assumed about messages in
    flight: that is the protocol invariant PROTO, proved (NoPanicU*.v).  Every conjunct of
    [run_hyp] is monitored on every step of every explored history of the real implementation. *)
Theorem C09_no_reachable_panic : forall ops reserve maxfill,
  Forall op_wf ops -> run_hyp (init_sys reserve maxfill) ops = true -> is_panic (run (init_sys reserve maxfill) ops) = false.
Proof. exact no_reachable_panic. Qed.

(** One more operation from any reachable state. *)
Theorem C09_step_never_panics : forall pre reserve maxfill s outs o,
  Forall op_wf pre -> run_hyp (init_sys reserve maxfill) pre = true -> run (init_sys reserve maxfill) pre = Ok (s, outs) ->
  hyp s o = true -> is_panic (step s o) = false.
Proof. exact step_never_panics. Qed.

(** The joint server / worker protocol invariant holds in every reachable state, and with it the
    hypothesis [run_fresh] of the core invariants is derived from the static [ops_ok]. *)
Theorem C09_protocol_invariant : forall ops reserve maxfill s outs,
  Forall op_wf ops -> ops_ok (init_sys reserve maxfill) ops = true -> run (init_sys reserve maxfill) ops = Ok (s, outs) ->
  proto_ok s = true /\ run_fresh (init_sys reserve maxfill) ops = true.
Proof.
  intros ops reserve maxfill s outs Hwf Hok H.
  destruct (reachable_PROTO ops reserve maxfill s outs Hwf Hok H) as [HP Hf].
  split; [|exact Hf]. apply NoPanicU1.PROTO_proto_ok; [|exact HP].
  apply BijCore.CS_sorted. exact (BijReact.cb_s _ (inv_cb _ (reachable_INV _ _ _ _ _ Hwf Hf H))).
Qed.

(** A worker's message never panics the server; a worker process never panics. *)
Theorem C09_worker_messages_never_panic : forall ops reserve maxfill s outs w,
  Forall op_wf ops -> ops_ok (init_sys reserve maxfill) ops = true ->
  ops_sol_ok (init_sys reserve maxfill) ops = true -> ops_retract_ok (init_sys reserve maxfill) ops = true ->
  run (init_sys reserve maxfill) ops = Ok (s, outs) -> is_panic (step s (OpDUp w)) = false.
Proof. exact worker_messages_never_panic. Qed.
Theorem C09_worker_process_never_panics : forall ops reserve maxfill s outs o,
  Forall op_wf ops -> ops_ok (init_sys reserve maxfill) ops = true -> run (init_sys reserve maxfill) ops = Ok (s, outs) ->
  NoPanicU5.worker_op o -> is_panic (step s o) = false.
Proof. exact worker_process_never_panics. Qed.

(** Non-vacuity, and the history of finding F28 (a reachable panic of the real server, found by the
    proof attempt; all other hypotheses hold on it) is excluded by exactly the clause its repair added. *)
Definition C09_no_panic_hypotheses_satisfiable := no_panic_hypotheses_satisfiable.
Definition C09_f28_history_excluded := f28_history_excluded.
Definition C09_f28_panic_reachable_without_repair := NoPanicU21.panic_102_reachable.

(** In EVERY reachable state of the system model (any history of client requests, worker
    connections and losses, deliveries in any order, scheduler rounds with any well-formed answer,
    task ends, launch failures, timers) no operation processed by the server itself - a client
    request, a worker connection, a worker loss, a scheduler answer - makes it panic.  Every
    unwrap / assert / unreachable / index / checked subtraction of the modelled code is a [Panic]
    result of the model, so this covers all of them on these paths.
    Hypotheses: on the history [op_wf] and [run_fresh] (RejHyp.v); on the operation [req_ok]:
    distinct explicit ids in an array submit (true of every message: the real IntArray is a set)
    and the executable [sol_ok] for a scheduler answer. *)
Theorem C09_server_never_panics : forall ops reserve maxfill s outs o,
  Forall op_wf ops -> run_fresh (init_sys reserve maxfill) ops = true -> run (init_sys reserve maxfill) ops = Ok (s, outs) ->
  server_op o -> req_ok s o -> is_panic (step s o) = false.
Proof. exact server_never_panics. Qed.

(** Client requests are in fact always processed ([Ok]: handled or answered with an error, never
    [Disabled] either) - "every such input is either handled or rejected with an error". *)
Theorem C09_client_requests_total : forall ops reserve maxfill s outs o,
  Forall op_wf ops -> run_fresh (init_sys reserve maxfill) ops = true -> run (init_sys reserve maxfill) ops = Ok (s, outs) ->
  client_op o -> NoPanicC5.op_ok s o -> exists r, step s o = Ok r.
Proof. exact client_requests_total_reachable. Qed.

(** One step, from the invariants (the form the reachable one is built from). *)
Theorem C09_scheduling_never_panics : forall s sol,
  INV s -> PW s -> sol_ok (s_core s) sol = true -> is_panic (step s (OpSched sol)) = false.
Proof. exact scheduling_never_panics. Qed.

(** The server has a connection for exactly the workers the scheduler knows - in every reachable
    state, no hypothesis ([send_worker] cannot fail). *)
Theorem C09_workers_have_connections : forall ops r m s outs, run (init_sys r m) ops = Ok (s, outs) -> PW s.
Proof. exact reachable_PW. Qed.

(** Finding F27 (fixed): a task graph naming an undefined resource request reaches the assertion /
    the index of [handle_submit_graph]; [step] now refuses it first, state untouched. *)
Theorem C09_malformed_graph_refused :
  handle_submit_graph (init_sys 0 2, []) None [] [(0, 0, 0%Z, CUnl, [])] None = Panic 224 /\
  step (init_sys 0 2) (OpSubmitG None [] [(0, 0, 0%Z, CUnl, [])] None) = Ok (init_sys 0 2, [OResp (RSubmitErr 5 0)]).
Proof. exact malformed_graph_panics_new_job. Qed.

(** Non-vacuity: reachable states with assigned, prefilled, retracting and multi-node tasks satisfy
    the hypotheses, with scheduler answers accepted by [sol_ok]; and every conjunct of [sol_ok] is
    needed (six reachable states, six panics). *)
Definition C09_hypotheses_satisfiable := sol_ok_satisfiable.
Definition C09_sol_ok_needed := sol_ok_needed.
Definition C09_client_theorem_applies := client_theorem_applies.

(** Client requests cannot panic a consistent job layer: the counter subtractions of close / forget
    never underflow. *)
Theorem C09_close_total : forall s jid, HOK (hq_of s) -> is_panic (handle_close s jid) = false.
Proof. exact close_total. Qed.
Theorem C09_forget_total : forall s jid, HOK (hq_of s) -> is_panic (handle_forget s jid) = false.
Proof. exact forget_total. Qed.
Theorem C09_open_total : forall s mf, is_panic (handle_open s mf) = false.
Proof. exact open_total. Qed.

(** The job-layer invariant these rely on holds after every history (C13). *)
Theorem C09_job_layer_invariant : forall ops s s', HOK (hq_of s) -> jrun s ops = Ok s' -> HOK (hq_of s').
Proof. exact jrun_ok. Qed.

(** ... and without [op_wf]: since the repair of finding F26 an ill-formed array submit is refused (a
    stutter step), so the executable [run_hyp] is the ONLY hypothesis. *)
Theorem C09_no_reachable_panic_nowf : forall ops reserve maxfill,
  run_hyp (init_sys reserve maxfill) ops = true -> is_panic (run (init_sys reserve maxfill) ops) = false.
Proof. exact no_reachable_panic_nowf. Qed.

Print Assumptions C09_server_never_panics.
Print Assumptions C09_client_requests_total.
Print Assumptions C09_scheduling_never_panics.
Print Assumptions C09_workers_have_connections.
Print Assumptions C09_malformed_graph_refused.
Print Assumptions C09_hypotheses_satisfiable.
Print Assumptions C09_sol_ok_needed.
Print Assumptions C09_client_theorem_applies.
Print Assumptions C09_close_total.
Print Assumptions C09_forget_total.
Print Assumptions C09_open_total.
Print Assumptions C09_job_layer_invariant.
Print Assumptions C09_no_reachable_panic.
Print Assumptions C09_step_never_panics.
Print Assumptions C09_protocol_invariant.
Print Assumptions C09_worker_messages_never_panic.
Print Assumptions C09_worker_process_never_panics.
Print Assumptions C09_no_panic_hypotheses_satisfiable.
Print Assumptions C09_f28_history_excluded.
Print Assumptions C09_f28_panic_reachable_without_repair.
Print Assumptions C09_no_reachable_panic_nowf.
