(** C05 - The server never overbooks a worker and only places tasks where they can run. *)
From HQ Require Import Base.Prelude Cluster.Types Cluster.Core Cluster.Reactor Cluster.Worker Cluster.Server Cluster.Sys Cluster.Monitors Cluster.ProofsJob Cluster.ProofsCore Cluster.ProofsMore Cluster.BijFinal Cluster.RejHyp Cluster.InvWFinal Cluster.CrashFrame Cluster.ProofsOnce Cluster.BijWitness Cluster.NoPanicU0 Cluster.AcctStep Cluster.AcctFinal Cluster.AcctCore.
From Coq Require Import ZArith.
Local Open Scope N_scope.
From HQ Require Sched.Model Sched.ProofsRows.
Module SM := HQ.Sched.Model.
Module SP := HQ.Sched.ProofsRows.

(** Reserving a request that fits and releasing it again restores the worker's free resources
    exactly (no saturation involved). *)
Theorem C05_reservation_roundtrip : forall w t rq w1 w2 a p f,
  w_assign w = Sn a p f -> tid_mem t a = false -> res_fits f rq = true -> length rq = length f ->
  Forall2 (fun x c => x <= c) f (w_res w) ->
  insert_sn_task w t rq = Ok w1 -> remove_sn_task w1 t rq = Ok w2 ->
  w_assign w2 = Sn (tid_remove t (tid_insert t a)) p f.
Proof. exact reservation_roundtrip. Qed.

(** A multi-node task is only put on workers that hold no assigned and no prefilled task. *)
Theorem C05_mn_only_on_free_workers : forall w t root w',
  set_mn_task w t root = Ok w' -> exists f, w_assign w = Sn [] [] f /\ w_stopping w = false.
Proof. exact mn_only_on_free_workers. Qed.

(** Every solution of the scheduler's row system, turned into a dispatch, stays within the free
    resources of every worker and places tasks only where they are runnable (component `sched`);
    [inst_on I w] resolves `all`-policy entries to the worker's total of the resource. *)
Theorem C05_feasible_no_overbook : forall I bs m s d,
  SP.inst_wf I ->
  SM.create_task_batches I = Ok bs -> SM.milp_of I bs = Ok m -> SM.feasible m s = true -> SM.mapping_ok I bs s d = true ->
  forall w, In w (SM.i_workers I) ->
    (exists v, SM.free_after I d w = Some v
               /\ forall r, SM.rv_get v r = (SM.rv_get (SM.w_free w) r - SP.demand (SM.inst_on I w) (SP.rqs_on I d (SM.w_id w)) r)%N)
    /\ (forall r, (SP.demand (SM.inst_on I w) (SP.rqs_on I d (SM.w_id w)) r <= SM.rv_get (SM.w_free w) r)%N)
    /\ (forall rq, In rq (SP.rqs_on I d (SM.w_id w)) -> SM.placeable I w rq = true).
Proof. exact HQ.Sched.ProofsRows.C05_feasible_no_overbook_thm. Qed.

(** The server-side worker bookkeeping agrees with the task states in EVERY reachable state: every
    id in a worker's assigned / prefilled set is a task placed there, and conversely every placed
    task is in exactly the set its state names; a multi-node task's workers are reserved for it
    ([Mn t]: such a worker has no single-node set at all, it runs nothing else).
    Hypotheses: [op_wf] (entries as many as explicit ids) and the executable channel / solver-answer
    hypothesis [run_fresh] of RejHyp.v (monitored on every explored history). *)
Theorem C05_worker_sets_invariant : forall ops reserve maxfill s outs,
  Forall op_wf ops -> run_fresh (init_sys reserve maxfill) ops = true -> run (init_sys reserve maxfill) ops = Ok (s, outs) ->
  let c := s_core s in
  forallb (worker_sets_ok c) (c_workers c) = true /\
  (forall t, In t (c_tasks c) ->
     match t_state t with
     | Assigned w _ | Running w _ => (exists wk a p f, find_worker (c_workers c) w = Some wk /\ w_assign wk = Sn a p f /\ tid_mem (t_id t) a = true)
     | Prefilled w => (exists wk a p f, find_worker (c_workers c) w = Some wk /\ w_assign wk = Sn a p f /\ tid_mem (t_id t) p = true)
     | Retracting _ => forall target rv, find_redirect (c_redirects c) (t_id t) = Some (target, rv) ->
                         exists wk a p f, find_worker (c_workers c) target = Some wk /\ w_assign wk = Sn a p f /\ tid_mem (t_id t) a = true
     | RunningMN ws => forall w, In w ws -> exists wk root, find_worker (c_workers c) w = Some wk /\ w_assign wk = Mn (t_id t) root
     | _ => True
     end).
Proof. exact worker_sets_invariant. Qed.

(** The hypotheses of the invariant are met by concrete histories that reach non-trivial states
    (a running task whose worker is lost; a task that runs and finishes). *)
Theorem C05_hypotheses_example :
  Forall op_wf (crash_ops ++ [crash_last]) /\ run_fresh (init_sys 0 2) (crash_ops ++ [crash_last]) = true /\
  Forall op_wf once_ops /\ run_fresh (init_sys 0 2) once_ops = true.
Proof. split; [repeat constructor|]. split; [vm_compute; reflexivity|]. split; [repeat constructor | vm_compute; reflexivity]. Qed.

(** The accounting conjunct, and what exactly the known finding F23 is.  In every reachable state of
    every history in which no subtraction from a free counter saturates ([fits_run], executable:
    every scheduler answer fits the free resources of the workers it uses, and every task a worker
    started from its prefilled backlog on its own fits the server's counter at the moment its
    message is processed - the negation of F23), the accounting is EXACT: for every worker in
    single-node mode, free + requests of the assigned tasks = total.  [op_dim]: requests have at
    most the three resource kinds of the monitor. *)
Theorem C05_accounting_exact : forall ops r m s outs,
  Forall op_wf ops -> Forall op_dim ops -> ops_ok (init_sys r m) ops = true -> fits_run (init_sys r m) ops = true ->
  run (init_sys r m) ops = Ok (s, outs) ->
  forallb (worker_accounting_ok (s_core s)) (c_workers (s_core s)) = true.
Proof. exact accounting_exact. Qed.
(** ... at every index, without the bound on the number of resource kinds. *)
Theorem C05_accounting_exact_all_indices : forall ops r m s outs,
  Forall op_wf ops -> ops_ok (init_sys r m) ops = true -> fits_run (init_sys r m) ops = true ->
  run (init_sys r m) ops = Ok (s, outs) ->
  forall wk a p f, In wk (c_workers (s_core s)) -> w_assign wk = Sn a p f ->
    length f = length (w_res wk) /\
    forall i, nth i f 0 + fold_right (fun id acc => nth i (request_of (s_core s) id) 0 + acc) 0 a = nth i (w_res wk) 0.
Proof. exact accounting_exact_all_indices. Qed.
(** The whole core invariant [core_ok] (the monitor evaluated on every explored state) then holds,
    up to the "one worker group" part of [mn_ok], which is a property of the solver's answer. *)
Theorem C05_core_ok_exact : forall ops r m s outs,
  Forall op_wf ops -> ops_ok (init_sys r m) ops = true -> run (init_sys r m) ops = Ok (s, outs) ->
  Forall op_dim ops -> fits_run (init_sys r m) ops = true ->
  forallb (mn_ok (s_core s)) (c_tasks (s_core s)) = true ->
  core_ok (s_core s) = true.
Proof. exact core_ok_exact. Qed.
(** The hypothesis is exactly F23 (a history on which everything holds up to the step that processes
    a self-started prefilled task; there [fits_step] is false and afterwards the accounting is),
    and it is satisfiable by histories in which workers do start prefilled tasks on their own. *)
Definition C05_f23_is_the_hypothesis := f23_is_the_hypothesis.
Definition C05_accounting_hyps_ok := accounting_exact_hyps_ok.

Print Assumptions C05_hypotheses_example.
Print Assumptions C05_worker_sets_invariant.
Print Assumptions C05_reservation_roundtrip.
Print Assumptions C05_mn_only_on_free_workers.
Print Assumptions C05_feasible_no_overbook.
Print Assumptions C05_accounting_exact.
Print Assumptions C05_accounting_exact_all_indices.
Print Assumptions C05_core_ok_exact.
Print Assumptions C05_f23_is_the_hypothesis.
Print Assumptions C05_accounting_hyps_ok.
