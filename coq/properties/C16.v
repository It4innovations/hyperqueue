(** C16 - Allocation policies mean what the documentation says; no spurious refusals.
    Only statements closed by [exact]; the proofs live in HQ.Alloc.Objective and HQ.Alloc.PolicyAdmission. *)
From HQ Require Import Base.Prelude Gen.Consts Alloc.Model Alloc.Spec Alloc.Lemmas Alloc.MirrorSystem Alloc.Admission Alloc.PolicyAdmission Alloc.Objective Alloc.Examples.
(** The policy-shape and admission theorems (closed by [exact], proofs in HQ.Alloc.Policy*.v) are
    stated in the annex file HQ.Alloc.PolicyC16, re-exported here: C16_claim_follows_policy,
    C16_scatter_shape, C16_compact_shape, C16_round_robin, C16_tight_shape, C16_min_fraction_direct,
    C16_min_fraction_coupled, C16_admission_iff_feasible_all, C16_admission_all, C16_grant_has_room,
    C16_unfit_refused, C16_enabled_agrees, C16_strict_admission, C16_optimal_answer_minimal; and the
    group-count theorems for whole grants in HQ.Alloc.PolicyGCC16 (C16_claimed_subset_selected,
    C16_accepted_ge_min, C16_grant_claimed_within_selected, C16_claimed_eq_selected,
    C16_grant_group_count_nonstrict, C16_strict_grant_group_count, C16_strict_grant_group_count_optimal). *)
From HQ Require Export Alloc.PolicyC16 Alloc.PolicyGCC16.
Open Scope N_scope.

(** The reference [min_groups] is the true minimum number of groups that can hold (units, fraction):
    some set of that many groups is sufficient and no sufficient set is smaller; None iff no set is. *)
Theorem C16_min_groups_correct : forall per units fr,
  match min_groups per units fr with
  | Some k =>
      (exists m, In m (sublists (full_mask per)) /\ sufficient per units fr m = true /\ len m = k)
      /\ (forall m, In m (sublists (full_mask per)) -> sufficient per units fr m = true -> k <= len m)
  | None => forall m, In m (sublists (full_mask per)) -> sufficient per units fr m = false
  end.
Proof. exact min_groups_correct. Qed.

(** The constraint rows group_solver builds (groups.rs) hold for a selection of groups iff the selected groups
    can hold the amount: enough whole indices, the fractional remainder from ONE index. *)
Theorem C16_rows_mean_sufficient : forall per units fr m,
  mask_feasible per units fr m = sufficient per units fr m.
Proof. exact rows_mean_sufficient. Qed.

(** Admission = feasibility (non-strict policies compact / tight / scatter with an amount): in every reachable
    state the admission test [has_resources_for_request] - computed from the concise summary - does not panic
    and is true EXACTLY when the free resources in the POOLS contain enough for every entry (reference
    [request_fits]: enough whole indices and the fractional remainder from one index; enough of a sum
    resource).  So there are no spurious refusals, and by C16_rows_mean_sufficient the group solver has a
    solution whenever the test passes (the unwrap() in claim_resources cannot fail). *)
Theorem C16_admission_iff_feasible : forall d s0 ops s rq w,
  init d = Ok s0 -> Forall valid_op ops -> run s0 ops = Ok s ->
  forallb plain_entry rq = true ->
  has_resources (s_alloc s) rq w = Ok (request_fits (a_pools (s_alloc s)) rq, a_yard (s_alloc s)).
Proof. exact admission_iff_feasible_thm. Qed.

(** [bounded per]: fewer than 32*1024 whole free units in total, fewer than 64 groups, fractions < 1 unit. *)

(** The solver's objective orders selections of groups by their NUMBER first: under the size bounds a selection
    with fewer groups has a strictly larger objective, with or without the tie-breaking terms
    (-1024 per group dominates the -units/32 and the 16*fraction terms). *)
Theorem C16_objective_orders_by_group_count : forall per fr tie m m',
  bounded per -> In m (sublists (full_mask per)) -> In m' (sublists (full_mask per)) ->
  len m < len m' -> (mask_objective tie per fr m' < mask_objective tie per fr m)%Z.
Proof. exact objective_orders. Qed.

(** Hence an optimal feasible answer of the solver selects exactly [min_groups] groups: compact / tight use the
    smallest number of groups possible in the current state (optimality of HiGHS' answer itself is checked per
    answer by the monitor solver-suboptimal). *)
Theorem C16_optimal_is_minimal : forall per units fr tie m,
  bounded per -> In m (sublists (full_mask per)) -> mask_feasible per units fr m = true ->
  (forall m', In m' (sublists (full_mask per)) -> mask_feasible per units fr m' = true ->
              (mask_objective tie per fr m' <= mask_objective tie per fr m)%Z) ->
  min_groups per units fr = Some (len m).
Proof. exact optimal_is_minimal. Qed.

(** Strict policies (one entry, no coupling weights), the comparison has_resources_for_request makes after the
    fix: if the objective (tie-breaking off) of a selection feasible NOW is within the 0.1 slack of the objective
    of an optimal selection for the EMPTY worker, the amount fits NOW into at most the minimum number of groups
    of the empty worker - a strict request is only admitted in such states. *)
Theorem C16_strict_sound : forall per_now per_all units fr m_now m_all,
  In m_now (sublists (full_mask per_now)) -> In m_all (sublists (full_mask per_all)) ->
  mask_feasible per_now units fr m_now = true ->
  min_groups per_all units fr = Some (len m_all) ->
  (mask_objective false per_all fr m_all - SLACK <= mask_objective false per_now fr m_now)%Z ->
  exists k, min_groups per_now units fr = Some k /\ k <= len m_all.
Proof. exact strict_admission_sound. Qed.

(** The same at the level of the admission function: if has_resources_for_request admits a request with ONE
    strict entry on a grouped resource (first call, no coupling weights) and the solver's answer for the empty
    worker is optimal (selects min_groups groups - checked per answer by the monitor), then the amount fits NOW
    into at most the minimum number of groups of the empty worker. *)
Theorem C16_strict_admitted_sound : forall a e pol amt w yard p s_now s_all,
  (pol = ForceCompact \/ pol = ForceTight) -> e_req e = Req pol amt ->
  a_weights a = [] -> a_yard a = [] ->
  get_at (a_pools a) (e_res e) = Ok p -> is_groups p = true ->
  get_at (a_free a) (e_res e) = Ok s_now -> get_at (a_all a) (e_res e) = Ok s_all ->
  has_resources a [e] w = Ok (true, yard) ->
  (forall m_all, w_yard w = Some [m_all] ->
                 min_groups (amount_max_per_group s_all) (fst (split amt)) (snd (split amt)) = Some (len m_all)) ->
  exists k m_all, w_yard w = Some [m_all]
    /\ min_groups (amount_max_per_group s_now) (fst (split amt)) (snd (split amt)) = Some k /\ k <= len m_all.
Proof. exact strict_admitted_sound. Qed.

(** statements that are monitored on every run but not proved (see tools/props/C16.json "partial") *)
Definition C16_claim_follows_policy_full : Prop := forall before e ra,
  scatter_ok before e ra = true /\ compact_even_ok before e ra = true /\ tight_ok before e ra = true
  /\ min_fraction_ok before e ra = true.
Definition C16_strict_grant_group_count_full : Prop := forall pools0 before e ra,
  is_forced (e_req e) = true -> group_count_ok pools0 before e ra = true.

(** the repaired strict admission: the scenario of corpus/alloc/strict-tiebreak-refusal.trace is granted *)
Theorem C16_strict_fix_example :
  exists s, (do s0 <- init ex_strict_desc; run s0 ex_strict_ops) = Ok s /\ length (s_live s) = 2%nat.
Proof. exact ex_strict_granted. Qed.

Theorem C16_min_groups_example :
  min_groups [(2, 0); (1, 5000); (3, 0)] 2 2500 = Some 1
  /\ min_groups [(2, 0); (1, 5000); (3, 0)] 3 7500 = Some 2
  /\ min_groups [(2, 0); (1, 5000); (3, 0)] 7 0 = None.
Proof. exact min_groups_example. Qed.

Print Assumptions C16_min_groups_correct.
Print Assumptions C16_rows_mean_sufficient.
Print Assumptions C16_admission_iff_feasible.
Print Assumptions C16_objective_orders_by_group_count.
Print Assumptions C16_optimal_is_minimal.
Print Assumptions C16_strict_sound.
Print Assumptions C16_strict_admitted_sound.
Print Assumptions C16_strict_fix_example.
