(** C04 - Worker resources are exclusive and conserved.
    Only statements closed by [exact]; the proofs live in HQ.Alloc.{Group,Pool,Inv,Theorems}.

    Reading guide.  [init d] = ResourceAllocator::new on a validated descriptor; [run s0 ops] replays any
    sequence of try_allocate / release_allocation / is_enabled calls with any witnesses (solver answers,
    tie breaks) the model accepts; [s_live s] = the allocations running tasks hold in state s;
    [worker_pools s0] = the initial pools (they define which (resource, group, index) the worker owns:
    [in_universe]); [live_held live r g i] = fractions of index i (group g, resource r) held by the live
    allocations (a whole index counts FRACTIONS_PER_UNIT); [pools_free] = free fractions of that index. *)
From HQ Require Import Base.Prelude Gen.Consts Alloc.Model Alloc.Spec Alloc.Lemmas Alloc.Group Alloc.Pool Alloc.Inv Alloc.Theorems Alloc.Mirror Alloc.MirrorSystem Alloc.CompleteTight Alloc.Admission Alloc.AllFree Alloc.Examples.
Open Scope N_scope.

(** No individual resource is ever held beyond 100 %, and nothing but the worker's own indices is held. *)
Theorem C04_exclusive : forall d s0 ops s r p0 g i,
  init d = Ok s0 -> run s0 ops = Ok s ->
  r < len (worker_pools s0) -> nth_error (worker_pools s0) (nat_of r) = Some p0 ->
  live_held (s_live s) r g i <= FPU
  /\ (in_universe (worker_pools s0) r g i = false -> live_held (s_live s) r g i = 0).
Proof. exact exclusive_thm. Qed.

(** The amounts taken from a sum resource never exceed its size (free + taken = size). *)
Theorem C04_sum_bound : forall d s0 ops s r f x,
  init d = Ok s0 -> run s0 ops = Ok s ->
  r < len (worker_pools s0) -> nth_error (worker_pools s0) (nat_of r) = Some (PSum f x) ->
  live_sum_amount (s_live s) r <= f
  /\ exists free, nth_error (a_pools (s_alloc s)) (nat_of r) = Some (PSum f free) /\ free + live_sum_amount (s_live s) r = f.
Proof. exact sum_bound_thm. Qed.

(** Conservation: for every index of the worker, free + held = 100 % in every reachable state - the free
    state is a function of the multiset of live allocations, not of the history. *)
Theorem C04_conservation : forall d s0 ops s r p0 g i,
  init d = Ok s0 -> run s0 ops = Ok s ->
  r < len (worker_pools s0) -> nth_error (worker_pools s0) (nat_of r) = Some p0 ->
  in_universe (worker_pools s0) r g i = true ->
  pools_free (a_pools (s_alloc s)) r g i + live_held (s_live s) r g i = FPU.
Proof. exact conservation_thm. Qed.

(** The values a task is told about are the ones it holds: a grant takes exactly the listed indices
    (and fractions) out of the free state. *)
Theorem C04_told_is_held : forall d s0 ops s rq w s' al r p0 g i,
  init d = Ok s0 -> run s0 ops = Ok s -> step s (OAlloc rq w) = Ok (s', OutGrant al) ->
  r < len (worker_pools s0) -> nth_error (worker_pools s0) (nat_of r) = Some p0 ->
  in_universe (worker_pools s0) r g i = true ->
  pools_free (a_pools (s_alloc s)) r g i = pools_free (a_pools (s_alloc s')) r g i + alloc_held al r g i.
Proof. exact told_is_held_thm. Qed.

(** When a task ends everything it held becomes available again ... *)
Theorem C04_release_restores : forall d s0 ops s k s' o r p0 g i,
  init d = Ok s0 -> run s0 ops = Ok s -> step s (ORelease k) = Ok (s', o) ->
  r < len (worker_pools s0) -> nth_error (worker_pools s0) (nat_of r) = Some p0 ->
  in_universe (worker_pools s0) r g i = true ->
  exists al, nth_error (s_live s) (nat_of k) = Some al
             /\ pools_free (a_pools (s_alloc s')) r g i = pools_free (a_pools (s_alloc s)) r g i + alloc_held al r g i.
Proof. exact release_returns_thm. Qed.

(** ... and after releasing everything the free state is the initial one: every index whole and free,
    every sum resource at its size. *)
Theorem C04_release_all_restores_initial : forall d s0 ops s,
  init d = Ok s0 -> run s0 ops = Ok s -> s_live s = [] ->
  (forall r p0 g i, r < len (worker_pools s0) -> nth_error (worker_pools s0) (nat_of r) = Some p0 ->
                    in_universe (worker_pools s0) r g i = true -> pools_free (a_pools (s_alloc s)) r g i = FPU)
  /\ (forall r f x, r < len (worker_pools s0) -> nth_error (worker_pools s0) (nat_of r) = Some (PSum f x) ->
                    nth_error (a_pools (s_alloc s)) (nat_of r) = Some (PSum f f)).
Proof. exact release_all_restores_thm. Qed.

(** Returning the indices of an allocation that is held never hits the unwrap / assert of
    ResourcePool::release_allocation, and restores the pool invariant without them. *)
Theorem C04_release_no_panic : forall us l gs Hb,
  GsI us gs (hsum (Hb ++ l)) (hfany (Hb ++ l)) ->
  Forall (fun ix => ai_frac ix < FPU /\ ai_group ix < len gs) l ->
  exists gs', release_indices_groups gs l = Ok gs' /\ GsI us gs' (hsum Hb) (hfany Hb) /\ length gs' = length gs.
Proof. exact release_list. Qed.

(** [valid_op]: the entries of a request have pairwise distinct resource ids (ResourceRequest::validate). *)

(** Exact amount: every grant consists of exactly one resource allocation per entry of the request, each with
    exactly the requested amount (the full size for `all`), whole indices followed by at most one fractional
    index whose parts add up to the amount (no indices for a sum resource). *)
Theorem C04_exact_amount : forall d s0 ops s rq w s' al,
  init d = Ok s0 -> Forall valid_op ops -> run s0 ops = Ok s -> NoDup (map e_res rq) ->
  step s (OAlloc rq w) = Ok (s', OutGrant al) ->
  exact_amount_set_ok (worker_pools s0) rq al = true.
Proof. exact exact_amount_thm. Qed.

(** Concise mirror: in EVERY reachable state the admission summary (ConciseFreeResources) equals the summary
    recomputed from the pools, modulo zero entries - the debug-only ResourceAllocator::validate() as a theorem,
    through allocations AND releases, single-group and multi-group branches of concise.rs, sum resources. *)
Theorem C04_concise_mirrors : forall d s0 ops s,
  init d = Ok s0 -> Forall valid_op ops -> run s0 ops = Ok s ->
  mirror_ok (a_pools (s_alloc s)) (a_free (s_alloc s)) = true.
Proof. exact concise_mirrors_thm. Qed.

(** ConciseFreeResources::add does not panic when a live allocation is released. *)
Theorem C04_release_concise_no_panic : forall d s0 ops s k al pools',
  init d = Ok s0 -> Forall valid_op ops -> run s0 ops = Ok s ->
  nth_error (s_live s) (nat_of k) = Some al ->
  release_helper (a_pools (s_alloc s)) al = Ok pools' ->
  exists free', cf_add (a_free (s_alloc s)) al = Ok free'.
Proof. exact release_concise_no_panic. Qed.

(** per accepted claim: what the check [claim_ok] guarantees *)
Theorem C04_claim_ok_sound : forall p p' rid rq ra,
  claim_ok p p' rid rq ra = true ->
  ra_res ra = rid /\ ra_amount ra = req_amount rq (pool_full_size p)
  /\ same_kind p p' = true /\ pool_full_size p' = pool_full_size p
  /\ match p, p' with
     | PSum _ free, PSum _ free' => ra_amount ra <= free /\ free' = free - ra_amount ra /\ ra_indices ra = []
     | PEmpty, _ => False
     | _, _ => shape_ok (ra_indices ra) = true /\ ra_total ra = ra_amount ra
               /\ take_all (pool_groups p) (ra_indices ra) = Some (pool_groups p')
     end.
Proof. exact claim_ok_inv. Qed.

(** The check is transparent: whatever the modelled claim functions (take_indices, take_fraction_index_or_split,
    claim_scatter_from_groups incl. its sort, claim_compact_from_groups incl. its swap) compute on well-formed
    pools passes [claim_ok] - so a model step is never rejected by the check itself (only for a witness the
    model does not accept).  Not covered: `all` on a grouped resource (claim_all_from_groups). *)
Theorem C04_gate_transparent_direct : forall (A : Type) p rid rq wit (k : pool -> ralloc -> res A),
  gs_wf (pool_groups p) -> not_all_on_groups p rq ->
  checked (pool_claim p rid rq wit) p rid rq k = (do x <- pool_claim p rid rq wit; k (fst x) (snd x)).
Proof. exact @gate_transparent_direct. Qed.

Theorem C04_gate_transparent_coupled : forall (A : Type) p rid rq mask wit (k : pool -> ralloc -> res A),
  gs_wf (pool_groups p) ->
  checked (claim_with_group_mask p rid rq mask wit) p rid rq k = (do x <- claim_with_group_mask p rid rq mask wit; k (fst x) (snd x)).
Proof. exact @gate_transparent_coupled. Qed.

(** ... and `all` on a grouped resource passes the check when every index is free *)
Theorem C04_gate_all : forall full gs rid wit p' ra,
  gs_wf gs -> full = usize (PGroups full gs) * FPU ->
  pool_claim (PGroups full gs) rid ReqAll wit = Ok (p', ra) -> claim_ok (PGroups full gs) p' rid ReqAll ra = true.
Proof. exact claim_complete_all. Qed.

(** `all` is granted only when everything of the resource is free: every index of an index / group
    resource is whole and free in the state in which an `all` entry is granted ... *)
Theorem C04_all_only_when_free : forall d s0 ops s rq w s' al e p0,
  init d = Ok s0 -> Forall valid_op ops -> run s0 ops = Ok s ->
  step s (OAlloc rq w) = Ok (s', OutGrant al) -> In e rq -> e_req e = ReqAll ->
  nth_error (worker_pools s0) (nat_of (e_res e)) = Some p0 -> pool_is_sum p0 = false ->
  forall g i, in_universe (worker_pools s0) (e_res e) g i = true ->
              pools_free (a_pools (s_alloc s)) (e_res e) g i = FPU.
Proof. exact all_only_when_free_groups. Qed.

(** ... and nothing of a sum resource is taken. *)
Theorem C04_all_only_when_free_sum : forall d s0 ops s rq w s' al e f x,
  init d = Ok s0 -> Forall valid_op ops -> run s0 ops = Ok s ->
  step s (OAlloc rq w) = Ok (s', OutGrant al) -> In e rq -> e_req e = ReqAll ->
  nth_error (worker_pools s0) (nat_of (e_res e)) = Some (PSum f x) ->
  nth_error (a_pools (s_alloc s)) (nat_of (e_res e)) = Some (PSum f f).
Proof. exact all_only_when_free_sum. Qed.

(** non-vacuity: a concrete reachable state with three live allocations satisfying the hypotheses, on which
    the executable monitors (the same predicates, as booleans) evaluate to true *)
Theorem C04_example_reachable : exists s0 s, init ex_desc = Ok s0 /\ run s0 (firstn 3 ex_ops) = Ok s /\ length (s_live s) = 3%nat
  /\ exclusive_ok (a_pools (s_alloc s0)) (s_live s) = true
  /\ conserved_ok (a_pools (s_alloc s0)) (a_pools (s_alloc s)) (s_live s) = true
  /\ mirror_ok (a_pools (s_alloc s)) (a_free (s_alloc s)) = true.
Proof. exact ex_mid_ok. Qed.

Theorem C04_example_run : exists s, ex_final = Ok s /\ s_live s = [].
Proof. exact ex_run_ok. Qed.

Check C04_exclusive.
Check C04_conservation.
Print Assumptions C04_exclusive.
Print Assumptions C04_sum_bound.
Print Assumptions C04_conservation.
Print Assumptions C04_told_is_held.
Print Assumptions C04_release_restores.
Print Assumptions C04_release_all_restores_initial.
Print Assumptions C04_release_no_panic.
Print Assumptions C04_exact_amount.
Print Assumptions C04_concise_mirrors.
Print Assumptions C04_release_concise_no_panic.
Print Assumptions C04_claim_ok_sound.
Print Assumptions C04_gate_transparent_direct.
Print Assumptions C04_gate_transparent_coupled.
Print Assumptions C04_gate_all.
Print Assumptions C04_all_only_when_free.
Print Assumptions C04_all_only_when_free_sum.
